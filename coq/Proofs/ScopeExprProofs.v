(* C02, part 2: the induction hypothesis [w_ok] of the simulation and the
   simulation of every expression clause of the walker. *)
From Soy Require Import Model.Bytes Model.Num Model.Values Model.Outcome Model.Ast
  Model.Escape Model.Directives Model.Print Generated.Tables Model.Interp Spec.Cmd
  Proofs.InterpLogic Proofs.ValueProofs Proofs.ConvertProofs Proofs.ScopeRel.
Open Scope N_scope.

Definition let_name (n : node) : option bstr :=
  match n with NLetValue _ x _ | NLetContent _ x _ => Some x | _ => None end.

(* what is assumed of the recursive call [w] (the walker with less fuel)
   with respect to the level [l] of the Spec (the Spec with less fuel) *)
Record w_ok (w : node -> M value) (l : level) : Prop := {
  ok_expr : forall e st en, wf KExpr e = true -> good st -> env_eq en (flatten (ctx st)) ->
      rel st (w e st) (sE (l_eval l en e) (next_id st)) (Qe (ctx st) (mode st));
  ok_cmd : forall c st en entry, wf KCmd c = true -> good st -> R (ctx st) en entry ->
      rel st (w c st) (l_exec l entry en (mode st) c (next_id st)) (@Qc value unit (ctx st) (mode st));
  ok_let : forall c x st en entry, wf KItem c = true -> let_name c = Some x -> good st ->
      R (ctx st) en entry -> top_unentered (ctx st) ->
      rel st (w c st) (l_let l entry en (mode st) c (next_id st))
          (fun _ v st1 => ctx st1 = sc_set (ctx st) x v /\ mode st1 = mode st);
  ok_tmpl : forall t st en entry, wf KTemplate t = true -> good st -> R (ctx st) en entry ->
      rel st (w t st) (l_exec l entry en (mode st) t (next_id st)) (fun _ _ st1 => ctx st1 = ctx st);
}.

Lemma rel_err {A B} st m (Q : A -> B -> mstate -> Prop) : rel st (@Err A m, st) ([], @Err (B * N) m) Q.
Proof. split; [reflexivity | apply fails_refl]. Qed.

(* [estep L]: the bind rule [rel_ebind] with lemma [L] for the first half (an expression: the scope is unchanged);
   [qe]: the postcondition [Qe] of an expression clause -- equal values, scope and mode unchanged *)
Ltac estep L := eapply rel_ebind; [ eapply L; eauto | cbv beta; intros ? ? ? (-> & ? & ?) ? ].
Ltac qe := split; [reflexivity | split; assumption].

Section Expr.
Variable cf : cfg.
Variable w : node -> M value.
Variable l : level.
Hypothesis Hw : w_ok w l.
Variable en : env.
Variable c : scope.
Variable md : N.
Hypothesis Hen : env_eq en (flatten c).

Lemma eval_rel e st :
  wf KExpr e = true -> good st -> ctx st = c -> mode st = md ->
  rel st (eval w e st) (sE (ev l en e) (next_id st)) (Qe c md).
Proof.
  intros Hwf Hg Hc Hm. unfold eval, ev. change (mbind get ?f st) with (f st st). cbv beta.
  eapply rel_bind_r.
  - apply (ok_expr _ _ Hw e st en Hwf Hg). rewrite Hc. exact Hen.
  - cbv beta. intros x y st1 (-> & Hc1 & Hm1) Hg1. cbn [mbind modify ret sret].
    apply rel_ok; [exact Hg1 | apply emits_same; reflexivity | reflexivity |].
    split; [reflexivity|]. cbn [ctx mode set_cur]. rewrite Hc1, Hm1. split; assumption.
Qed.

Lemma evaldef_rel e st :
  wf KExpr e = true -> good st -> ctx st = c -> mode st = md ->
  rel st (evaldef w e st) (sE (evdef l en e) (next_id st)) (Qe c md).
Proof.
  intros Hwf Hg Hc Hm. unfold evaldef, evdef. estep eval_rel.
  destruct y; try (apply rel_eret; [assumption | qe]). apply rel_efail.
Qed.

Lemma eval_list_rel es : forallb (wf KExpr) es = true -> forall st,
  good st -> ctx st = c -> mode st = md ->
  rel st (eval_list w es st) (sE (ev_list l en es) (next_id st)) (Qe c md).
Proof.
  induction es as [|e es IH]; intros Hwf st Hg Hc Hm; cbn [eval_list ev_list].
  - apply rel_eret; [assumption | qe].
  - cbn [forallb] in Hwf. apply andb_prop in Hwf. destruct Hwf as [H1 H2].
    estep eval_rel. estep IH. apply rel_eret; [assumption | qe].
Qed.

Lemma maplit_rel its : forallb (fun kv => wf KExpr (snd kv)) its = true -> forall st,
  good st -> ctx st = c -> mode st = md ->
  rel st (maplit_items w its st) (sE (maplit_spec l en its) (next_id st)) (Qe c md).
Proof.
  induction its as [|[k e] its IH]; intros Hwf st Hg Hc Hm; cbn [maplit_items maplit_spec].
  - apply rel_eret; [assumption | qe].
  - cbn [forallb snd] in Hwf. apply andb_prop in Hwf. destruct Hwf as [H1 H2].
    estep eval_rel. estep IH. apply rel_eret; [assumption | qe].
Qed.

(* a lookup that the Spec makes by [env_lookup] without a bind *)
Lemma rel_lookup_l {A' B'} st k (f : value -> M A') (s : Cm B') (Q2 : A' -> B' -> mstate -> Prop) :
  good st -> ctx st = c -> mode st = md ->
  (forall st1, good st1 -> ctx st1 = c -> mode st1 = md -> rel st1 (f (env_lookup k en) st1) (s (next_id st1)) Q2) ->
  rel st (mbind (m_lookup k) f st) (s (next_id st)) Q2.
Proof.
  intros Hg Hc Hm H. eapply rel_bind_l with (Q1 := fun x _ s1 => x = env_lookup k en /\ ctx s1 = c /\ mode s1 = md).
  - rewrite m_lookup_eq. unfold env_lookup. rewrite Hen, <- sc_lookup_flatten, <- Hc.
    destruct (sc_lookup (ctx st) k) as [v|]; unfold sret;
      (apply rel_ok; [exact Hg | apply emits_same; reflexivity | reflexivity | split; [reflexivity | split; [reflexivity | exact Hm]]]).
  - intros x st1 (-> & H1 & H2) Hg1. apply H; assumption.
Qed.

Lemma loop_func_rel name args st :
  good st -> ctx st = c -> mode st = md ->
  rel st (loop_func name args st) (sE (loop_func_spec en name args) (next_id st)) (Qe c md).
Proof.
  intros Hg Hc Hm. unfold loop_func, loop_func_spec.
  destruct args as [|a args]; [apply rel_efail|].
  destruct a; try apply rel_efail.
  apply rel_lookup_l; try assumption. intros st1 Hg1 Hc1 Hm1.
  destruct (fn_is name n_index); [apply rel_eret; [assumption | qe]|].
  destruct (env_lookup (key ++ s_index) en); try apply rel_efail.
  destruct (fn_is name n_isFirst); [apply rel_eret; [assumption | qe]|].
  apply rel_lookup_l; try assumption. intros st2 Hg2 Hc2 Hm2.
  destruct (env_lookup (key ++ s_lastindex) en); try apply rel_efail.
  apply rel_eret; [assumption | qe].
Qed.

Lemma call_func_rel name args st :
  forallb (wf KExpr) args = true -> good st -> ctx st = c -> mode st = md ->
  rel st (call_func w name args st) (sE (call_func_spec l en name args) (next_id st)) (Qe c md).
Proof.
  intros Hwf Hg Hc Hm. unfold call_func, call_func_spec.
  destruct (func_arities name) as [ar|]; [|apply rel_efail].
  destruct (negb (mem (N.of_nat (length args)) ar)); [apply rel_efail|].
  estep eval_list_rel.
  estep @rel_elift.
  destruct y0.
  - apply rel_eret; [assumption | qe].
  - apply rel_fresh_list_or_nil; assumption.
  - apply rel_fresh_map; assumption.
Qed.

Lemma access_rel acc : forallb (wf KAccess) acc = true -> forall ref st,
  good st -> ctx st = c -> mode st = md ->
  rel st (dataref_access w acc ref st) (sE (access_spec l en acc ref) (next_id st)) (Qe c md).
Proof.
  induction acc as [|a acc IH]; intros Hwf ref st Hg Hc Hm; cbn [dataref_access access_spec].
  - apply rel_eret; [assumption | qe].
  - cbn [forallb] in Hwf. apply andb_prop in Hwf. destruct Hwf as [H1 H2].
    eapply rel_ebind with (Q1 := Qe c md).
    + destruct a; try apply rel_efail; try (apply rel_eret; [assumption | qe]).
      cbn [wf] in H1. estep eval_rel.
      destruct y; try (apply rel_eret; [assumption | qe]);
        (estep @rel_elift; apply rel_eret; [assumption | qe]).
    + cbv beta. intros x [oi k] st1 (-> & Hc1 & Hm1) Hg1.
      destruct ref; try apply rel_efail.
      * destruct (is_nullsafe a); [apply rel_eret; [assumption | qe] | apply rel_efail].
      * destruct (is_nullsafe a); [apply rel_eret; [assumption | qe] | apply rel_efail].
      * destruct oi as [i|]; [apply IH; assumption | apply rel_efail].
      * destruct oi as [i|]; [apply rel_efail | apply IH; assumption].
Qed.

Lemma print_dirs_rel ds : forallb (wf KDirective) ds = true -> forall v st,
  good st -> ctx st = c -> mode st = md ->
  rel st (print_dirs cf w ds v st) (sE (dirs_spec cf l en ds v) (next_id st)) (Qe c md).
Proof.
  induction ds as [|d ds IH]; intros Hwf v st Hg Hc Hm; cbn [print_dirs dirs_spec].
  - apply rel_eret; [assumption | qe].
  - cbn [forallb] in Hwf. apply andb_prop in Hwf. destruct Hwf as [H1 H2].
    destruct d; try apply rel_efail. cbn [wf] in H1.
    destruct (lookup_directive name) as [[arglens rest]|]; [|apply rel_efail].
    destruct (negb (check_num_args arglens (length args))); [apply rel_efail|].
    estep eval_list_rel.
    estep @rel_elift. estep @rel_elift.
    estep IH. apply rel_eret; [assumption | qe].
Qed.

Lemma case_hit_rel sv vs : forallb (wf KExpr) vs = true -> forall st,
  good st -> ctx st = c -> mode st = md ->
  rel st (case_hit w sv vs st) (sE (case_hit_spec l en sv vs) (next_id st)) (Qe c md).
Proof.
  induction vs as [|v vs IH]; intros Hwf st Hg Hc Hm; cbn [case_hit case_hit_spec].
  - apply rel_eret; [assumption | qe].
  - cbn [forallb] in Hwf. apply andb_prop in Hwf. destruct Hwf as [H1 H2].
    estep eval_rel. destruct (equals sv y); [apply rel_eret; [assumption | qe] | apply IH; assumption].
Qed.

(* every expression clause of walk_node *)
Lemma expr_rel n st :
  wf KExpr n = true -> good st -> ctx st = c -> mode st = md ->
  rel st (walk_node cf w n st) (sE (eval_body cf l en n) (next_id st)) (Qe c md).
Proof.
  intros Hwf Hg Hc Hm.
  destruct n; try discriminate Hwf; cbn [walk_node eval_body]; cbn [wf] in Hwf;
    try (apply rel_eret; [assumption | qe]).
  - destruct (fn_is name n_index || fn_is name n_isFirst || fn_is name n_isLast).
    + apply loop_func_rel; assumption.
    + apply call_func_rel; assumption.
  - estep eval_list_rel. apply rel_fresh_list; assumption.
  - estep maplit_rel. apply rel_fresh_map; assumption.
  - eapply rel_ebind with (Q1 := Qe c md).
    + destruct (bstr_eqb key s_ij).
      * destruct (c_ij cf); [apply rel_eret; [assumption | qe] | apply rel_efail].
      * apply rel_m_lookup; assumption.
    + cbv beta. intros ? ? ? (-> & ? & ?) ?. apply access_rel; assumption.
  - estep eval_rel. apply rel_eret; [assumption | qe].
  - estep evaldef_rel. destruct y; try apply rel_efail; apply rel_eret; (assumption || qe).
  - apply andb_prop in Hwf. destruct Hwf as [H1 H2].
    destruct op.
    all: try (estep evaldef_rel; estep evaldef_rel; apply rel_elift; assumption).
    all: try (estep eval_rel; estep eval_rel; apply rel_eret; [assumption | qe]).
    + estep eval_rel. destruct (truthy y); [apply rel_eret; [assumption | qe]|].
      estep eval_rel. apply rel_eret; [assumption | qe].
    + estep eval_rel. destruct (truthy y); [|apply rel_eret; [assumption | qe]].
      estep eval_rel. apply rel_eret; [assumption | qe].
    + estep eval_rel. destruct (is_nullish y); [apply eval_rel; assumption | apply rel_eret; [assumption | qe]].
  - apply andb_prop in Hwf. destruct Hwf as [H12 H3]. apply andb_prop in H12. destruct H12 as [H1 H2].
    estep eval_rel. destruct (truthy y); apply eval_rel; assumption.
Qed.

End Expr.
