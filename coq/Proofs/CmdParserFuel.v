(* The command-level parser model (Model/Parser.v) is monotone in its budget: a run that does not end in CFuel
   returns the same result under every larger budget (the command-level counterpart of Proofs/ExprParserFuel.v).
   Consequence: a tree obtained under SOME budget is the tree parse.SoyFile's own budget gives, because the
   entry point never runs out of budget (Proofs/ParserProofs.v). *)
From Soy Require Import Model.Bytes Model.Outcome Model.Ast Model.Token Model.RawText Model.ExprParser Model.Parser Generated.Tables
  Proofs.ExprParserFuel.
From Coq Require Import Lia.
Open Scope N_scope.

Definition cle {A} (r r' : cres A) : Prop := r = CFuel \/ r = r'.
Lemma cle_refl {A} (r : cres A) : cle r r. Proof. right. reflexivity. Qed.
Lemma cle_fuel {A} (r : cres A) : cle CFuel r. Proof. left. reflexivity. Qed.
Lemma cle_bind {A B} (x x' : cres A) (k k' : A -> cst -> cres B) :
  cle x x' -> (forall a s, cle (k a s) (k' a s)) -> cle (cbind x k) (cbind x' k').
Proof.
  intros [->| ->] Hk; [left; reflexivity|]. destruct x' as [a s|t c s|m|]; cbn [cbind]; [apply Hk|right; reflexivity|right; reflexivity|left; reflexivity].
Qed.
Lemma cle_ok {A} (r r' : cres A) : cle r r' -> r <> CFuel -> r = r'.
Proof. intros [->| ->] H; [congruence|reflexivity]. Qed.

(* [le_go] of Proofs/ExprParserFuel.v for [cle]: the walk over a procedure, calls closed from the hint base [cle] *)
Create HintDb cle discriminated.
#[export] Hint Extern 1 (_ <= _)%nat => lia : cle.
Ltac cle_go :=
  repeat lazymatch goal with
  | |- cle (cbind _ _) (cbind _ _) => apply cle_bind; [|intros ? ?]
  | |- cle (if ?c then _ else _) (if ?c then _ else _) => destruct c
  | |- cle (match ?c with _ => _ end) (match ?c with _ => _ end) => destruct c
  | |- cle ?x ?y => first [constr_eq x y; apply cle_refl | progress cbv zeta | solve [auto 3 with cle nocore]]
  end.
Ltac cle_loop f IH := induction f as [|f IH]; intros [|?f'] ?Hle; intros; [apply cle_fuel|apply cle_fuel|lia|].

Section Fuel.
Variable inlen : N.
Variable lexq : bstr -> list tok.
Variable unq : bstr -> option bstr.
Variable efuel : list tok -> nat.

Lemma attrs_loop_le : forall f f', (f <= f')%nat -> forall allowed acc s,
  cle (attrs_loop inlen unq f allowed acc s) (attrs_loop inlen unq f' allowed acc s).
Proof. cle_loop f IH. cbn [attrs_loop]. cle_go. Qed.
Lemma next_non_comment_le : forall f f', (f <= f')%nat -> forall s, cle (next_non_comment f s) (next_non_comment f' s).
Proof. cle_loop f IH. cbn [next_non_comment]. cle_go. Qed.
Lemma skip_comments_le : forall f f', (f <= f')%nat -> forall t s, cle (skip_comments f t s) (skip_comments f' t s).
Proof. cle_loop f IH. cbn [skip_comments]. cle_go. Qed.
Lemma text_run_le : forall f f', (f <= f')%nat -> forall t s, cle (text_run f t s) (text_run f' t s).
Proof. cle_loop f IH. cbn [text_run]. cle_go. Qed.
Lemma soydoc_loop_le : forall f f', (f <= f')%nat -> forall pos ps s, cle (soydoc_loop inlen f pos ps s) (soydoc_loop inlen f' pos ps s).
Proof. cle_loop f IH. cbn [soydoc_loop]. cle_go. Qed.
Lemma alias_loop_le : forall f f', (f <= f')%nat -> forall n l s, cle (alias_loop inlen f n l s) (alias_loop inlen f' n l s).
Proof. cle_loop f IH. cbn [alias_loop]. cle_go. Qed.
Lemma dotted_name_le : forall f f', (f <= f')%nat -> forall n s, cle (dotted_name f n s) (dotted_name f' n s).
Proof. cle_loop f IH. cbn [dotted_name]. cle_go. Qed.
Lemma call_name_loop_le : forall f f', (f <= f')%nat -> forall n s, cle (call_name_loop f n s) (call_name_loop f' n s).
Proof. cle_loop f IH. cbn [call_name_loop]. cle_go. Qed.
#[local] Hint Resolve attrs_loop_le next_non_comment_le skip_comments_le text_run_le soydoc_loop_le alias_loop_le dotted_name_le
  call_name_loop_le : cle.

Lemma parse_alias_le f f' s : (f <= f')%nat -> cle (parse_alias inlen f s) (parse_alias inlen f' s).
Proof. intros Hle. unfold parse_alias. cle_go. Qed.
Lemma parse_namespace_le f f' t s : (f <= f')%nat -> cle (parse_namespace inlen unq f t s) (parse_namespace inlen unq f' t s).
Proof. intros Hle. unfold parse_namespace. cle_go. Qed.
Lemma call_name_le f f' s : (f <= f')%nat -> cle (call_name f s) (call_name f' s).
Proof. intros Hle. unfold call_name. cle_go. Qed.
#[local] Hint Resolve parse_alias_le parse_namespace_le call_name_le : cle.

Section Level.
Variable pe pe' : N -> cst -> cres node.
Variable w w' : list N -> cst -> cres node.
Variable lf lf' : nat.
Hypothesis Hpe : forall p s, cle (pe p s) (pe' p s).
Hypothesis Hw : forall u s, cle (w u s) (w' u s).
Hypothesis Hlf : (lf <= lf')%nat.

Lemma directive_args_le : forall f f', (f <= f')%nat -> forall args s, cle (directive_args pe f args s) (directive_args pe' f' args s).
Proof. cle_loop f IH. cbn [directive_args]. cle_go. Qed.
#[local] Hint Resolve directive_args_le : cle.
Lemma cmd_print_loop_le : forall f f', (f <= f')%nat -> forall pos e dirs s,
  cle (cmd_print_loop inlen pe lf f pos e dirs s) (cmd_print_loop inlen pe' lf' f' pos e dirs s).
Proof. cle_loop f IH. cbn [cmd_print_loop]. cle_go. Qed.
#[local] Hint Resolve cmd_print_loop_le : cle.
Lemma cmd_print_le t s : cle (cmd_print inlen pe lf t s) (cmd_print inlen pe' lf' t s).
Proof. unfold cmd_print. cle_go. Qed.

Lemma parse_let_le t s : cle (parse_let inlen unq pe w lf t s) (parse_let inlen unq pe' w' lf' t s).
Proof. unfold parse_let. cle_go. Qed.

Lemma orphan_text_le : forall f f', (f <= f')%nat -> forall t s, cle (orphan_text inlen lf f t s) (orphan_text inlen lf' f' t s).
Proof. cle_loop f IH. cbn [orphan_text]. cle_go. Qed.
Lemma param_attr_form_le rec rec' params initial key0 s : (forall ps s0, cle (rec ps s0) (rec' ps s0)) ->
  cle (param_attr_form inlen lexq unq parse_expr efuel w lf rec params initial key0 s)
      (param_attr_form inlen lexq unq parse_expr efuel w' lf' rec' params initial key0 s).
Proof. intros Hrec. unfold param_attr_form. cle_go. Qed.
#[local] Hint Resolve orphan_text_le param_attr_form_le : cle.
Lemma call_params_loop_le : forall f f', (f <= f')%nat -> forall params s,
  cle (call_params_loop inlen lexq unq parse_expr efuel pe w lf f params s) (call_params_loop inlen lexq unq parse_expr efuel pe' w' lf' f' params s).
Proof. cle_loop f IH. cbn [call_params_loop]. cle_go. Qed.
#[local] Hint Resolve call_params_loop_le : cle.
Lemma parse_call_le t s : cle (parse_call inlen lexq unq parse_expr efuel pe w lf t s) (parse_call inlen lexq unq parse_expr efuel pe' w' lf' t s).
Proof. unfold parse_call. cle_go. Qed.

Lemma case_loop_le : forall f f', (f <= f')%nat -> forall t vs s, cle (case_loop inlen pe w f t vs s) (case_loop inlen pe' w' f' t vs s).
Proof. cle_loop f IH. cbn [case_loop]. cle_go. Qed.
#[local] Hint Resolve case_loop_le : cle.
Lemma switch_loop_le : forall f f', (f <= f')%nat -> forall pos endt v cs s,
  cle (switch_loop inlen pe w lf f pos endt v cs s) (switch_loop inlen pe' w' lf' f' pos endt v cs s).
Proof. cle_loop f IH. cbn [switch_loop]. cle_go. Qed.
#[local] Hint Resolve switch_loop_le : cle.
Lemma parse_switch_le t endt s : cle (parse_switch inlen pe w lf t endt s) (parse_switch inlen pe' w' lf' t endt s).
Proof. unfold parse_switch. cle_go. Qed.
#[local] Hint Resolve parse_switch_le : cle.
Lemma parse_plural_le t s : cle (parse_plural inlen pe w lf t s) (parse_plural inlen pe' w' lf' t s).
Proof. unfold parse_plural. cle_go. Qed.
Lemma parse_for_le t s : cle (parse_for inlen pe w t s) (parse_for inlen pe' w' t s).
Proof. unfold parse_for. cle_go. Qed.
Lemma if_loop_le : forall f f', (f <= f')%nat -> forall pos conds ie s, cle (if_loop inlen pe w f pos conds ie s) (if_loop inlen pe' w' f' pos conds ie s).
Proof. cle_loop f IH. cbn [if_loop]. cle_go. Qed.
Lemma parse_msg_le t s : cle (parse_msg inlen unq w lf t s) (parse_msg inlen unq w' lf' t s).
Proof. unfold parse_msg. cle_go. Qed.
Lemma parse_template_le t s : cle (parse_template inlen unq w lf t s) (parse_template inlen unq w' lf' t s).
Proof. unfold parse_template. cle_go. Qed.
Lemma parse_header_param_le t s : cle (parse_header_param inlen pe t s) (parse_header_param inlen pe' t s).
Proof. unfold parse_header_param. cle_go. Qed.
#[local] Hint Resolve cmd_print_le parse_let_le parse_call_le parse_plural_le parse_for_le if_loop_le parse_msg_le parse_template_le
  parse_header_param_le : cle.

Lemma begin_tag_le s : cle (begin_tag inlen lexq unq parse_expr efuel pe w lf s) (begin_tag inlen lexq unq parse_expr efuel pe' w' lf' s).
Proof. unfold begin_tag, notmsg. cle_go. Qed.
#[local] Hint Resolve begin_tag_le : cle.
Lemma text_or_tag_le t until s : cle (text_or_tag inlen lexq unq parse_expr efuel pe w lf t until s) (text_or_tag inlen lexq unq parse_expr efuel pe' w' lf' t until s).
Proof. unfold text_or_tag. cle_go. Qed.
#[local] Hint Resolve text_or_tag_le : cle.
Lemma item_list_loop_le : forall f f', (f <= f')%nat -> forall until pos acc s,
  cle (item_list_loop inlen lexq unq parse_expr efuel pe w lf f until pos acc s) (item_list_loop inlen lexq unq parse_expr efuel pe' w' lf' f' until pos acc s).
Proof. cle_loop f IH. cbn [item_list_loop]. cle_go. Qed.
End Level.

Lemma lift_expr_le f f' p s : (f <= f')%nat -> cle (lift_expr inlen parse_expr f p s) (lift_expr inlen parse_expr f' p s).
Proof.
  intros Hle. unfold lift_expr. destruct (parse_expr_le f f' Hle p (c_p s)) as [->| ->]; [apply cle_fuel|apply cle_refl].
Qed.

Theorem item_list_le : forall f f', (f <= f')%nat -> forall until s,
  cle (item_list inlen lexq unq parse_expr efuel f until s) (item_list inlen lexq unq parse_expr efuel f' until s).
Proof.
  cle_loop f IH. cbn [item_list]. apply item_list_loop_le; [intros; apply lift_expr_le; lia|intros; apply IH; lia|lia|lia].
Qed.

(* a tree under SOME budget is the tree of every budget that does not run out *)
Theorem item_list_agree f f' until s :
  item_list inlen lexq unq parse_expr efuel f until s <> CFuel -> item_list inlen lexq unq parse_expr efuel f' until s <> CFuel ->
  item_list inlen lexq unq parse_expr efuel f until s = item_list inlen lexq unq parse_expr efuel f' until s.
Proof.
  intros H1 H2. destruct (Nat.le_ge_cases f f') as [Hle|Hle].
  - apply cle_ok; [apply item_list_le; exact Hle|exact H1].
  - symmetry. apply cle_ok; [apply item_list_le; exact Hle|exact H2].
Qed.

End Fuel.
