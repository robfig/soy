(* C19, parse half: an unterminated block comment / string, from the TEXT of the fault.

   Proofs/LexEofPos.v shows where the error item stands WHEN the scanning loop of a block comment or a
   string ends the scan.  Here: that it does.  For every file s whose scan reaches the block-comment
   state at a cursor after which the input is ASCII and holds no closing `*/`, the items of s are the items sent so far followed by ONE error item,
   `unclosed comment`, at the end of the input -- on the last line of s.  (The string loop is not done here.) *)
From Soy Require Import Model.Bytes Model.Utf8 Model.Outcome Model.Token Model.Lexer Generated.Tables Model.Interp Spec.ErrPos
  Proofs.Utf8Proofs Proofs.LexerPrim Proofs.LexTokens Proofs.ErrTokProofs Proofs.LexErrPos Proofs.LexEofPos Proofs.ErrPosReach
  Proofs.LexPrefix.
From Coq Require Import ZifyBool ZifyNat ZifyN Lia List.
Import ListNotations.
Open Scope Z_scope.

Definition c19_ascii (c : N) : Prop := (c < 128)%N.

(* no `*/` in what follows; [star]: the byte before was a `*` *)
Fixpoint c19_no_close (star : bool) (body : bstr) : Prop :=
  match body with
  | [] => True
  | c :: t => (star = true -> c <> 47%N) /\ c19_no_close (N.eqb c 42) t
  end.

Section Unterminated.
Variable ul ud : Z -> bool.
Variable s : bstr.
Notation ilen := (Z.of_nat (length s)).

Lemma c19_drop_nil (p : Z) : 0 <= p -> drop (Z.to_nat p) s = [] -> ilen <= p.
Proof. intros Hp H. pose proof (f_equal (@length _) H) as HL. rewrite drop_length in HL. cbn [length] in HL. lia. Qed.

Lemma c19_drop_cons (p : Z) c t : 0 <= p -> drop (Z.to_nat p) s = c :: t -> p + 1 + Z.of_nat (length t) = ilen.
Proof. intros Hp H. pose proof (f_equal (@length _) H) as HL. rewrite drop_length in HL. cbn [length] in HL. lia. Qed.

Lemma c19_next_at_end l : 0 <= l_pos l -> ilen <= l_pos l ->
  exists l1, next s ilen l = Ok (eof, l1) /\ l_out l1 = l_out l /\ l_pos l1 = l_pos l.
Proof.
  intros Hp He. destruct (next_cases s l Hp) as (r & l1 & Hn & Ho & [(Hr & Hpos & _)|(_ & Hlt)]); [|lia].
  subst r. exists l1. auto.
Qed.

Lemma c19_block_comment_open body : forall fuel star l,
  Forall c19_ascii body -> c19_no_close star body -> 0 <= l_pos l <= ilen ->
  drop (Z.to_nat (l_pos l)) s = body -> (length body < fuel)%nat ->
  exists l', block_comment_loop s ilen 0 fuel star l = Ok (LDone, l') /\
             l_out l' = err_item ilen e_comment_eof :: l_out l.
Proof.
  induction body as [|c t IH]; intros fuel star l Ha Hnc [Hp Hle] Hd Hf; (destruct fuel as [|f]; [cbn [length] in Hf; lia|]); cbn [block_comment_loop].
  - pose proof (c19_drop_nil _ Hp Hd) as He. destruct (c19_next_at_end l Hp He) as (l1 & Hn & Ho & Hpos).
    rewrite Hn. cbn [bind]. change (eof =? eof) with true. cbn iota. unfold errorf.
    destruct (0 + l_pos l1 <? 0) eqn:E; [lia|]. eexists. split; [reflexivity|]. cbn [l_out]. rewrite Ho.
    f_equal. unfold err_item. f_equal.
    lia.
  - inversion Ha as [|? ? Hc Ha']; subst. cbn [c19_no_close] in Hnc. destruct Hnc as (Hs & Hnc).
    destruct (LexErrPos.next_ascii s l c t Hp Hd Hc) as [Hn Hd1]. rewrite Hn. cbn [bind].
    set (l1 := {| l_pos := l_pos l + 1; l_start := l_start l; l_width := 1; l_dd := l_dd l;
                  l_last := l_last l; l_out := l_out l; l_ticks := l_ticks l + 1 |}) in *.
    assert (Heof : (Z.of_N c =? eof) = false) by (unfold eof; lia). rewrite Heof.
    pose proof (c19_drop_cons _ _ _ Hp Hd) as Hlen.
    assert (Hp1 : 0 <= l_pos l1 <= ilen) by (unfold l1; cbn [l_pos]; lia).
    assert (Hf1 : (length t < f)%nat) by (cbn [length] in Hf; lia).
    destruct (Z.of_N c =? 42) eqn:E42.
    + assert (Ec : N.eqb c 42 = true) by (apply N.eqb_eq; lia). rewrite Ec in Hnc.
      destruct (IH f true l1 Ha' Hnc Hp1 Hd1 Hf1) as (l' & Hr & Ho). exists l'. split; [exact Hr|exact Ho].
    + assert (Ec : N.eqb c 42 = false) by (apply N.eqb_neq; lia). rewrite Ec in Hnc.
      destruct ((Z.of_N c =? 47) && star) eqn:E47.
      * exfalso. apply andb_prop in E47. destruct E47 as (E1 & E2). apply (Hs E2). lia.
      * destruct (IH f false l1 Ha' Hnc Hp1 Hd1 Hf1) as (l' & Hr & Ho). exists l'. split; [exact Hr|exact Ho].
Qed.

(* an unterminated block comment, from whatever configuration in the block-comment state the scan of s has reached
   (the cursor stands after the opening slash-star): if no star-slash follows, the items of s are the items sent so far
   and the error item at the end of the input, whose line is the last line of s *)
Theorem c19_unterminated_comment_reached k l body fuel :
  steps ul ud s 0 k LText lex_init = Ok (LBlockComment, l) -> 0 <= l_pos l <= ilen ->
  drop (Z.to_nat (l_pos l)) s = body -> Forall c19_ascii body -> c19_no_close false body ->
  let e := err_item ilen e_comment_eof in
  lex_items ul ud (k + S fuel) false s = Ok (rev (l_out l) ++ [e]) /\
  t_pos e = N.of_nat (length s) /\ line_at s (t_pos e) = lines s /\
  (forall opened, (opened <= N.of_nat (length s))%N -> (line_at s opened <= line_at s (t_pos e))%N).
Proof.
  intros Hk Hp Hd Ha Hnc e.
  assert (Ep : t_pos e = N.of_nat (length s)) by (unfold e, err_item; cbn [t_pos]; lia).
  split; [|split; [exact Ep|split]].
  - unfold lex_items, lex_run, lex_run_at. cbn [entry_state].
    rewrite (reach_run ul ud s _ _ _ _ _ (S fuel) Hk ltac:(discriminate)).
    cbn [run step]. unfold lex_block_comment.
    destruct (c19_block_comment_open body (loop_fuel ilen l) false l Ha Hnc Hp Hd) as (l' & Hr & Ho).
    { unfold loop_fuel. pose proof (f_equal (@length _) Hd) as HL. rewrite drop_length in HL. lia. }
    rewrite Hr. cbn [bind]. replace (run ul ud s ilen 0 fuel LDone l') with (Ok l') by (destruct fuel; reflexivity).
    cbn [bind]. rewrite Ho. cbn [rev]. reflexivity.
  - rewrite Ep. exact (proj1 (end_of_input_line s 0%N ltac:(lia))).
  - intros opened Ho. rewrite Ep. exact (proj2 (end_of_input_line s opened Ho)).
Qed.
End Unterminated.
