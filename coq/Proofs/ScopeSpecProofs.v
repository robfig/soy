(* C02: the two scoping sentences of the property as lemmas of the Spec
   (Spec/Cmd.v) alone -- no machine state is mentioned here. *)
From Soy Require Import Model.Bytes Model.Num Model.Values Model.Outcome Model.Ast
  Model.Escape Model.Interp Spec.Cmd.
From Soy Require Export Proofs.BytesBase.
Open Scope N_scope.

Definition is_let (n : node) : bool :=
  match n with NLetValue _ _ _ | NLetContent _ _ _ => true | _ => false end.

Section S.
Variable cf : cfg.

(* ---- "A let or loop variable is visible only inside the block that
        introduces it and shadows outer names only there." ---- *)

(* Whatever a command that is not itself a let binds inside (lets in nested
   blocks, loop variables, a callee's variables), the commands after it run in
   the environment [en] the command itself started in. *)
Theorem let_not_visible_after_block l entry md en c rest :
  is_let c = false ->
  block l entry md en (c :: rest) = (_ <~~ l_exec l entry en md c ;; block l entry md en rest).
Proof. destruct c; intros H; try discriminate H; reflexivity. Qed.

(* with fuel, for a block node: *)
Corollary let_not_visible_after_block_fuel f entry md en p c rest :
  is_let c = false ->
  exec_spec cf (S f) entry en md (NList p (c :: rest)) =
  (_ <~~ exec_spec cf f entry en md c ;; block (spec_level cf f) entry md en rest).
Proof. intros H. unfold exec_spec. cbn [spec_level next_level l_exec exec_body]. apply let_not_visible_after_block, H. Qed.

(* a let binds its name for the rest of ITS block: there it shadows, and only that name *)
Theorem let_scope_value l entry md en p x e rest :
  block l entry md en (NLetValue p x e :: rest) =
  (v <~~ l_let l entry en md (NLetValue p x e) ;; block l entry md ((x, v) :: en) rest).
Proof. reflexivity. Qed.
Theorem let_scope_content l entry md en p x b rest :
  block l entry md en (NLetContent p x b :: rest) =
  (v <~~ l_let l entry en md (NLetContent p x b) ;; block l entry md ((x, v) :: en) rest).
Proof. reflexivity. Qed.
Theorem shadow_lookup_same x v (en : env) : env_lookup x ((x, v) :: en) = v.
Proof. unfold env_lookup. cbn. rewrite bstr_eqb_refl. reflexivity. Qed.
Theorem shadow_lookup_other x y v (en : env) : bstr_eqb y x = false -> env_lookup y ((x, v) :: en) = env_lookup y en.
Proof. intros H. unfold env_lookup. cbn. rewrite H. reflexivity. Qed.

Theorem shadow_lookup x y v (en : env) :
  env_lookup x ((x, v) :: en) = v /\ (bstr_eqb y x = false -> env_lookup y ((x, v) :: en) = env_lookup y en).
Proof. split; [apply shadow_lookup_same | apply shadow_lookup_other]. Qed.

(* a block node as a whole cannot change what its successors see, even when it consists of lets only *)
Theorem block_is_a_scope l entry md en p items rest :
  block l entry md en (NList p items :: rest) =
  (_ <~~ l_exec l entry en md (NList p items) ;; block l entry md en rest).
Proof. reflexivity. Qed.

(* the loop variable and its helpers exist in the body only: each iteration
   starts from the loop's own environment [en], and so does whatever follows the loop *)
Theorem loop_var_scope l entry md en var body last i x r :
  for_spec l entry md en var body last i (x :: r) =
  (_ <~~ l_exec l entry ((var ++ s_index, VInt i) :: (var, x) :: (var ++ s_lastindex, VInt last) :: en) md body ;;
   for_spec l entry md en var body last (i + 1)%Z r).
Proof. reflexivity. Qed.
Theorem loop_var_not_visible_after l entry md en p var lst body ie rest :
  block l entry md en (NFor p var lst body ie :: rest) =
  (_ <~~ l_exec l entry en md (NFor p var lst body ie) ;; block l entry md en rest).
Proof. reflexivity. Qed.

(* ---- "A called template sees exactly the passed data plus its explicit
        params, never the caller's let or loop variables, and nothing it binds
        is visible to the caller afterwards." ---- *)

(* the callee runs with [ps ++ base] both as its environment and as its own entry data *)
Theorem callee_env_exact l entry md en p name alldata dat params callee :
  find_template (r_templates (c_reg cf)) name = Some callee ->
  exec_body cf l entry md en (NCall p name alldata dat params) =
  (base <~~ base_spec l entry en alldata dat ;;
   ps <~~ params_spec l entry md en params [] ;;
   l_exec l (ps ++ base) (ps ++ base) (call_mode (t_ns_autoescape callee)) (t_node callee)).
Proof. intros H. cbn [exec_body]. rewrite H. reflexivity. Qed.

(* ... where an explicit param overrides the passed data of the same name and nothing else is there *)
Theorem callee_lookup (ps base : env) k :
  env_lookup k (ps ++ base) = match assoc_s k ps with Some v => v | None => env_lookup k base end.
Proof.
  unfold env_lookup. induction ps as [|[k' v] ps IH]; cbn; [reflexivity|].
  destruct (bstr_eqb k k'); [reflexivity | exact IH].
Qed.
Theorem base_all l entry en dat : base_spec l entry en true dat = sret entry.
Proof. reflexivity. Qed.
Theorem base_none l entry en : base_spec l entry en false None = sret [].
Proof. reflexivity. Qed.

(* the caller's environment is irrelevant to a call that passes data="all" and no params:
   lets and loop variables of the caller never reach the callee *)
Theorem caller_locals_not_passed l entry md en1 en2 p name dat :
  exec_body cf l entry md en1 (NCall p name true dat []) = exec_body cf l entry md en2 (NCall p name true dat []).
Proof. reflexivity. Qed.
(* likewise for a call without data and without params: the callee starts from nothing *)
Theorem caller_locals_not_passed_nodata l entry1 entry2 md en1 en2 p name :
  exec_body cf l entry1 md en1 (NCall p name false None []) = exec_body cf l entry2 md en2 (NCall p name false None []).
Proof. reflexivity. Qed.

(* after the call the caller continues in its own environment *)
Theorem caller_env_restored l entry md en p name alldata dat params rest :
  block l entry md en (NCall p name alldata dat params :: rest) =
  (_ <~~ l_exec l entry en md (NCall p name alldata dat params) ;; block l entry md en rest).
Proof. reflexivity. Qed.
End S.
