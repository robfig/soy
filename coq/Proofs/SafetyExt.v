(* C06: the extended model of Model/InterpJson.v (escapeJsString, json on every value,
   round with digits) never lets a panic out and never spins -- by the hooked-walker theorems of
   Proofs/SafetyUser.v, once each hooked entry is shown to answer. *)
From Coq Require Import Lia ZifyBool.
From Soy Require Import Model.Bytes Model.Utf8 Model.Num Model.Values Model.Outcome Model.Ast
  Model.Escape Model.Directives Model.JsEscape Model.Print Generated.Tables Model.Interp Model.InterpSafety
  Model.InterpJson Spec.Safety Proofs.ValueProofs Proofs.InterpLogic Proofs.InterpSub
  Proofs.SafetyPure Proofs.SafetyNodes Proofs.SafetyProofs Proofs.SafetyUser.
Open Scope N_scope.

(* ---- json ---- *)

Lemma nf_json_float x : nf (json_float x).
Proof. unfold json_float. destruct x; try exact I; match goal with |- nf (match ?o with _ => _ end) => destruct o; exact I end. Qed.

Lemma map_set_in acc k v kx : In kx (map_set acc k v) -> kx = (k, v) \/ In kx acc.
Proof.
  induction acc as [|[k' v'] r IH]; cbn [map_set]; intros H.
  - destruct H as [<-|[]]. left. reflexivity.
  - destruct (bstr_eqb k k').
    + destruct H as [<-|H]; [left; reflexivity | right; right; exact H].
    + destruct (bstr_ltb k k').
      * destruct H as [<-|H]; [left; reflexivity | right; exact H].
      * destruct H as [<-|H]; [right; left; reflexivity|].
        destruct (IH H) as [->|Hr]; [left; reflexivity | right; right; exact Hr].
Qed.

Lemma sorted_fields_in m kx : In kx (sorted_fields m) -> In kx m.
Proof.
  unfold sorted_fields.
  assert (G : forall l acc, In kx (fold_left (fun acc kv => map_set acc (fst kv) (snd kv)) l acc) -> In kx l \/ In kx acc).
  { induction l as [|[k v] r IH]; intros acc H; cbn [fold_left] in H; [right; exact H|].
    destruct (IH _ H) as [Hr|Ha]; [left; right; exact Hr|].
    cbn [fst snd] in Ha. destruct (map_set_in _ _ _ _ Ha) as [->|Hacc]; [left; left; reflexivity | right; exact Hacc]. }
  intros H. destruct (G m [] H) as [Hm|[]]. exact Hm.
Qed.

(* json_value for a predicate [P] closed under bind, on the values [good] accepts *)
Section JsonAll.
Variable P : forall A : Type, outcome A -> Prop.
Arguments P {A} _.
Hypothesis P_ok : forall A (x : A), P (Ok x).
Hypothesis P_bind : forall A B (x : outcome A) (f : A -> outcome B), P x -> (forall v, P (f v)) -> P (bind x f).
Variable good : value -> bool.
Hypothesis good_float : forall x, good (VFloat x) = true -> P (json_float x).
Hypothesis good_list : forall i l x, good (VList i l) = true -> In x l -> good x = true.
Hypothesis good_map : forall i m kx, good (VMap i m) = true -> In kx m -> good (snd kx) = true.

Lemma all_json_items (rec : value -> outcome bstr) l : (forall x, In x l -> P (rec x)) -> P (json_items rec l).
Proof.
  induction l as [|x r IH]; intros H; cbn [json_items]; [apply P_ok|].
  apply P_bind; [apply H; left; reflexivity|]. intros s.
  apply P_bind; [apply IH; intros y Hy; apply H; right; exact Hy|]. intros rs. apply P_ok.
Qed.

Lemma all_json_fields (rec : value -> outcome bstr) m : (forall kx, In kx m -> P (rec (snd kx))) -> P (json_fields rec m).
Proof.
  induction m as [|[k x] r IH]; intros H; cbn [json_fields]; [apply P_ok|].
  apply P_bind; [apply (H (k, x)); left; reflexivity|]. intros s.
  apply P_bind; [apply IH; intros y Hy; apply H; right; exact Hy|]. intros rs. apply P_ok.
Qed.

Lemma all_json_value : forall f v, (depth v < f)%nat -> good v = true -> P (json_value f v).
Proof.
  induction f as [|f IH]; intros v Hd Hg; [lia|].
  destruct v as [| |x|z|x|t|i l|i m]; cbn [json_value]; try apply P_ok.
  - destruct x; apply P_ok.
  - apply good_float. exact Hg.
  - destruct l as [|y l']; [apply P_ok|]. set (l := y :: l') in *.
    apply P_bind; [|intros; apply P_ok].
    apply all_json_items. intros x Hx. apply IH; [|exact (good_list _ _ _ Hg Hx)].
    pose proof (fold_max_le depth x l Hx). cbn [depth] in Hd. lia.
  - destruct m as [|y m']; [apply P_ok|]. set (m := y :: m') in *.
    apply P_bind; [|intros; apply P_ok].
    apply all_json_fields. intros kx Hx. apply sorted_fields_in in Hx. apply IH; [|exact (good_map _ _ _ Hg Hx)].
    pose proof (fold_max_le (fun kx => depth (snd kx)) kx m Hx). cbn [depth] in Hd. lia.
Qed.
End JsonAll.

Lemma nf_json_value f v : (depth v < f)%nat -> nf (json_value f v).
Proof.
  intros Hd. apply (all_json_value (@nf) (@nf_ok) (@nf_bind) (fun _ => true)); auto. intros x _. apply nf_json_float.
Qed.

Theorem nf_json_of v : nf (json_of v).
Proof. unfold json_of. apply nf_json_value. lia. Qed.

Lemma nf_dir_json v args : nf (dir_json v args).
Proof. unfold dir_json. destruct v as [x|]; [|exact I]. apply nf_bind; [apply nf_json_of|]. intros s. exact I. Qed.

Lemma nf_dir_escape_js v args : nf (dir_escape_js v args).
Proof. unfold dir_escape_js. destruct v as [x|]; [|exact I]. apply nf_bind; [apply pans_nf, pans_value_string|]. intros s. exact I. Qed.

(* ---- round ---- *)

Lemma nf_round1 x : nf (round1 x).
Proof. unfold round1. destruct (fl_add _ _); [|exact I]. destruct (fl_trunc_Z _); exact I. Qed.

Lemma nf_round_digits x d : nf (round_digits x d).
Proof.
  unfold round_digits. destruct (_ && _)%bool; [|exact I].
  destruct (fl_of_int _); [|exact I]. destruct (fl_mul _ _); [|exact I].
  destruct (fl_add _ _); [|exact I]. destruct (fl_trunc_Z _); [|exact I].
  destruct (fl_of_int _); [|exact I]. apply pans_nf, pans_of_fl.
Qed.

Lemma nf_round_x args : nf (round_x args).
Proof.
  unfold round_x. destruct args as [|v [|v2 r]]; [exact I | |].
  - apply nf_bind; [apply pans_nf, pans_to_float|]. intros x. apply nf_round1.
  - destruct v2, r; try exact I.
    apply nf_bind; [apply pans_nf, pans_to_float|]. intros x. destruct (z =? 0)%Z; [apply nf_round1 | apply nf_round_digits].
Qed.

(* ---- the hooks of the extended model answer ---- *)

Theorem x_hooks_answer : hooks_answer x_funcs x_dirs.
Proof.
  split.
  - intros name h vs Hh. unfold x_funcs in Hh. destruct (bstr_eqb name n_round); [|discriminate].
    injection Hh as <-. apply nf_round_x.
  - intros name de ap v args Hde Himpl. unfold x_dirs in Hde.
    destruct (lookup_directive name) as [[arglens [cancel [nilapply fn]]]|]; [|discriminate].
    destruct (bstr_eqb name n_json).
    + injection Hde as <-. cbn [de_impl] in Himpl. injection Himpl as <-. apply nf_dir_json.
    + destruct (bstr_eqb name n_escapeJsString).
      * injection Hde as <-. cbn [de_impl] in Himpl. injection Himpl as <-. apply nf_dir_escape_js.
      * injection Hde as <-. cbn [de_impl] in Himpl. discriminate.
Qed.

Theorem walk_x_no_escape cf fuel n st : no_escape (fst (walk_xj cf fuel n st)).
Proof. apply walk_hook_no_escape. exact x_hooks_answer. Qed.

Theorem render_x_no_escape cf fuel name data_id data cl bl first_id :
  reg_ok (c_reg cf) = true ->
  no_escape (rr_outcome (render_xj cf fuel name data_id data cl bl first_id)).
Proof.
  intros Hreg. apply render_hook_no_escape_pos; [exact x_hooks_answer | apply reg_ok_pos; exact Hreg].
Qed.

(* ---- the hooked entries are inside the model ---- *)

(* escapeJsString answers OutOfModel only where String() itself does (floats outside the printing domain) *)
Theorem dir_escape_js_total v args s :
  value_string v = Ok s -> dir_escape_js (Some v) args = Ok (Some (VStr (js_escape_soy jsstr_pair_html is_print_tbl s))).
Proof. intros H. unfold dir_escape_js. rewrite H. reflexivity. Qed.

(* json on a value without floats is total: a string, whatever the value's String() does *)
Fixpoint float_free (v : value) : bool :=
  match v with
  | VFloat _ => false
  | VList _ l => forallb float_free l
  | VMap _ m => forallb (fun kx => float_free (snd kx)) m
  | _ => true
  end.

Definition is_ok {A} (o : outcome A) : Prop := match o with Ok _ => True | _ => False end.

Lemma ok_bind {A B} (x : outcome A) (f : A -> outcome B) : is_ok x -> (forall v, is_ok (f v)) -> is_ok (bind x f).
Proof. destruct x; cbn; try tauto. intros _ H. apply H. Qed.

Lemma ok_json_value f v : (depth v < f)%nat -> float_free v = true -> is_ok (json_value f v).
Proof.
  apply (all_json_value (@is_ok) (fun _ _ => I) (@ok_bind) float_free).
  - discriminate.
  - intros i l x Hf. cbn [float_free] in Hf. rewrite forallb_forall in Hf. apply Hf.
  - intros i m kx Hf. cbn [float_free] in Hf. rewrite forallb_forall in Hf. apply (Hf kx).
Qed.

Theorem json_total_float_free v args : float_free v = true -> exists s, dir_json (Some v) args = Ok (Some (VStr s)).
Proof.
  intros Hf. unfold dir_json, json_of.
  pose proof (ok_json_value (S (depth v)) v ltac:(lia) Hf) as H.
  destruct (json_value (S (depth v)) v) as [s| | | | |]; cbn in H; try contradiction.
  exists s. reflexivity.
Qed.
