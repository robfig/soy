(* C19, parse half, scanner: where the LAST item of a scan stands -- for every input, every state.

   [at_cursor l]: the item sent last is positioned at the scanner's cursor (base + l.pos), and when
   it is an error item of an unterminated construct (eof in soydoc / in a block comment / in a
   string, unclosed tag) the cursor has reached the end of the input.
   [step_dn]: every state function that returns the nil state leaves [at_cursor] (the nil state is
   returned only by errorf, or by lexText after it has emitted EOF): a postcondition ([post], Proofs/LexRun.v)
   followed along the body of each scanning loop and state function.  [run_at_cursor]: hence for the whole run.  With the invariant of
   Proofs/LexerProofs.v (the cursor never passes the end of the input):
   [scan_final_item]: the last item of ANY scan that returns stands at the cursor where the scan
   stopped, inside the input, and an unterminated soydoc / comment / string / tag is reported
   exactly at the end of the input. *)
From Soy Require Import Model.Bytes Model.Utf8 Model.Outcome Model.Token Model.Lexer Generated.Tables
  Proofs.LexerPrim Proofs.LexerStates Proofs.LexerProofs Proofs.LexRun.
From Coq Require Import ZifyBool Lia List.
Import ListNotations.
Open Scope Z_scope.

Definition eof_class (c : bstr) : bool :=
  bstr_eqb c e_soydoc_eof || bstr_eqb c e_comment_eof || bstr_eqb c e_string_eof || bstr_eqb c e_unclosed_tag.

Section Final.
Variable uni_letter uni_digit : Z -> bool.
Variable inp : bstr.
Notation ilen := (Z.of_nat (length inp)).
Variable base : Z.

Definition at_cursor (l' : lx) : Prop :=
  exists it rest, l_out l' = it :: rest /\ t_pos it = Z.to_N (base + l_pos l') /\
    (t_typ it = itemError -> eof_class (t_val it) = true -> ilen <= l_pos l').
Definition dn (p : lstate * lx) : Prop := fst p = LDone -> at_cursor (snd p).

(* what the callers use of a result: of next, that the rune eof is read at the end of the input only; of a
   computation that may return a final state, [dn] *)
Definition eofp (p : Z * lx) : Prop := (fst p =? eof) = true -> ilen <= l_pos (snd p).
Definition dnl {X} (s : lstate * lx + X) : Prop := match s with inl e => dn e | inr _ => True end.

Lemma next_eofp l : post eofp (next inp ilen l).
Proof.
  intros [r l1] H E. cbn [fst snd] in *. unfold next, eof in *. apply Z.eqb_eq in E. destruct (ilen <=? l_pos l) eqn:C.
  - inversion H; subst. cbn [l_pos]. lia.
  - destruct (l_pos l <? 0); [discriminate|]. destruct (decode_rune _) as [rr w]. inversion H; subst. lia.
Qed.

Lemma errorf_dn c l : (eof_class c = true -> ilen <= l_pos l) -> post dn (errorf base c l).
Proof.
  unfold errorf. intros Hc p H. destruct (_ <? 0); [discriminate|]. inversion H; subst; clear H.
  intros _. cbn [snd]. eexists; eexists. cbn [l_out l_pos t_pos t_typ t_val]. split; [reflexivity|]. split; [reflexivity|].
  intros _ Hcl. exact (Hc Hcl).
Qed.

Lemma emit_eof_dn l : post (fun l' => dn (LDone, l')) (emit inp ilen base itemEOF l).
Proof.
  unfold emit. set (l1 := if ilen <? l_pos l then set_pos l ilen else l). intros l' H.
  destruct (slice _ _ _ _) as [v| | | | |]; cbn [bind] in H; try discriminate.
  inversion H; subst; clear H. intros _. cbn [snd]. eexists; eexists. cbn [l_out l_pos t_pos t_typ]. split; [reflexivity|]. split; [reflexivity|].
  intros Ht. vm_compute in Ht. discriminate.
Qed.

Lemma dn_live st l : st <> LDone -> dn (st, l).
Proof. intros H E. cbn in E. contradiction. Qed.

Lemma emit_to_dn t st l : st <> LDone -> post dn (emit_to inp ilen base t st l).
Proof. intros Hst p H. unfold emit_to in H. destruct (emit _ _ _ _ _); cbn [bind] in H; inversion H; subst. apply dn_live; exact Hst. Qed.

Hint Resolve next_eofp emit_eof_dn : dn.

(* [post] along the body of a function: at a bind the callee's lemma (database dn, or the induction hypothesis
   of a loop; nothing is kept of the other calls), a test or a match by cases with the equation kept, a return
   of a live state by dn_live, of a bound result by what is known of it; errorf needs the end of input exactly
   for the classes of eof_class *)
Ltac post_of x :=
  lazymatch x with
  | next _ _ _ => constr:(eofp)
  | emit _ _ _ itemEOF _ => constr:(fun l' : lx => dn (LDone, l'))
  | _ => lazymatch type of x with
         | outcome (lstate * lx + ?X) => constr:(@dnl X)
         | outcome (lstate * lx) => constr:(dn)
         | outcome ?A => constr:(fun _ : A => True)
         end
  end.

Ltac post_body :=
  cbn beta iota zeta;
  lazymatch goal with
  | |- post (fun _ => True) _ => apply post_any
  | |- post _ (bind ?x _) => let P := post_of x in apply (post_bind P); [post_body | intros ? ?; post_body]
  | |- post _ (if ?c then _ else _) => destruct c eqn:?; post_body
  | |- post _ (match ?x with _ => _ end) => destruct x eqn:?; post_body
  | |- post _ (Ok _) => apply post_ret; cbn [dnl]; first [assumption | exact I | apply dn_live; discriminate]
  | |- post _ (errorf _ ?c _) =>
      apply errorf_dn; first [intros X; vm_compute in X; discriminate X | intros _; match goal with H : eofp _ |- _ => apply H; assumption end]
  | |- post _ (emit_to _ _ _ _ _ _) => apply emit_to_dn; discriminate
  | |- _ => solve [eauto with dn]
  end.

Lemma lex_text_loop_dn fuel : forall r0 l, post dn (lex_text_loop inp ilen base fuel r0 l).
Proof. induction fuel as [|f IH]; intros r0 l; cbn [lex_text_loop]; [intros ? [=]|]. post_body. Qed.

Lemma line_comment_loop_dn fuel : forall l, post dn (line_comment_loop inp ilen base fuel l).
Proof. induction fuel as [|f IH]; intros l; cbn [line_comment_loop]; [intros ? [=]|]. post_body. Qed.

Lemma block_comment_loop_dn fuel : forall star l, post dn (block_comment_loop inp ilen base fuel star l).
Proof. induction fuel as [|f IH]; intros star l; cbn [block_comment_loop]; [intros ? [=]|]. post_body. Qed.

Lemma string_loop_dn fuel : forall q l, post dn (string_loop inp ilen base fuel q l).
Proof. induction fuel as [|f IH]; intros q l; cbn [string_loop]; [intros ? [=]|]. post_body. Qed.

Lemma soydoc_loop_dn fuel : forall star sol l, post dn (soydoc_loop inp ilen base fuel star sol l).
Proof. induction fuel as [|f IH]; intros star sol l; cbn [soydoc_loop]; [intros ? [=]|]. post_body. Qed.

Lemma header_type_loop_dn fuel : forall lns l, post dnl (header_type_loop inp ilen base fuel lns l).
Proof. induction fuel as [|f IH]; intros lns l; cbn [header_type_loop]; [intros ? [=]|]. post_body. Qed.

Lemma css_loop_dn fuel : forall l, post dnl (css_loop inp ilen base fuel l).
Proof. induction fuel as [|f IH]; intros l; cbn [css_loop]; [intros ? [=]|]. post_body. Qed.

Lemma double_close_dn l : post dnl (double_close inp ilen base l).
Proof. unfold double_close. post_body. Qed.

Hint Resolve lex_text_loop_dn line_comment_loop_dn block_comment_loop_dn string_loop_dn soydoc_loop_dn
  header_type_loop_dn css_loop_dn double_close_dn : dn.

Lemma lex_negative_dn l : post dn (lex_negative inp ilen base l).
Proof. unfold lex_negative. post_body. Qed.
Hint Resolve lex_negative_dn : dn.

(* lexInsideTag: "unclosed tag" is raised on the rune next() returned, which is then eof: every test on the way
   to that case fails, and the state is the one next() left *)
Lemma lex_inside_tag_dn l : post dn (lex_inside_tag inp ilen base l).
Proof.
  unfold lex_inside_tag. apply (post_bind eofp); [apply next_eofp|]. intros [r l1] Hr. cbn beta iota.
  destruct (r =? eof) eqn:Ceof; [|post_body].
  apply Z.eqb_eq in Ceof. subst r.
  repeat (match goal with |- context [if ?c then _ else _] =>
            let v := eval vm_compute in c in change c with v; cbn iota end; cbn [bind]).
  apply errorf_dn. intros _. exact (Hr eq_refl).
Qed.
Hint Resolve lex_inside_tag_dn : dn.

Theorem step_dn st l : st <> LDone -> post dn (step uni_letter uni_digit inp ilen base st l).
Proof.
  intros Hst. destruct st; try congruence; cbn [step];
    unfold lex_text, lex_left_delim, lex_right_delim, lex_right_delim_end, lex_begin_tag, lex_soydoc,
      lex_line_comment, lex_block_comment, lex_string, lex_ident, lex_header_param, lex_css, lex_literal, lex_number;
    post_body.
Qed.

Theorem run_at_cursor fuel st l l' : (st = LDone -> at_cursor l) ->
  run uni_letter uni_digit inp ilen base fuel st l = Ok l' -> at_cursor l'.
Proof.
  intros H0 Hr.
  refine (run_invariant _ _ _ _ _ (fun st l => st = LDone -> at_cursor l) _ fuel st l l' Hr H0 eq_refl).
  intros st0 l0 st1 l1 Hst Es _. exact (step_dn _ _ Hst _ Es).
Qed.
End Final.

(* the cursor of a run that returns is inside the input *)
Lemma run_wf (uni_letter uni_digit : Z -> bool) :
  uni_letter (-1) = false -> uni_digit (-1) = false ->
  forall inp base, 0 <= base -> forall fuel st l l', inv inp base st l ->
  run uni_letter uni_digit inp (Z.of_nat (length inp)) base fuel st l = Ok l' -> wf inp l'.
Proof.
  intros Hl Hd inp base Hb fuel st l l' Hi Hr.
  refine (proj1 (run_invariant _ _ _ _ _ (inv inp base) _ fuel st l l' Hr Hi)).
  intros st0 l0 st1 l1 Hst Es Hi0. pose proof (step_ok uni_letter uni_digit Hl Hd inp base Hb _ l0 Hi0 Hst) as Hs.
  rewrite Es in Hs. exact (proj1 Hs).
Qed.

(* ANY scan that returns (file or expression mode, any base, any budget): the last item stands at the
   cursor where the scan stopped; the cursor is inside the input; an unterminated soydoc / block
   comment / string / tag is reported at the very end of the input *)
Theorem scan_final_item (uni_letter uni_digit : Z -> bool) :
  uni_letter (-1) = false -> uni_digit (-1) = false ->
  forall base, 0 <= base -> forall fuel expr_mode s l,
  lex_run_at uni_letter uni_digit base fuel expr_mode s = Ok l ->
  exists it rest, l_out l = it :: rest /\ t_pos it = Z.to_N (base + l_pos l) /\ 0 <= l_pos l <= Z.of_nat (length s) /\
    (t_typ it = itemError -> eof_class (t_val it) = true -> l_pos l = Z.of_nat (length s)).
Proof.
  intros Hl Hd base Hb fuel expr_mode s l Hr. unfold lex_run_at in Hr.
  pose proof (run_wf _ _ Hl Hd s base Hb fuel _ _ _ (init_inv s base expr_mode) Hr) as Hw.
  assert (Hc : at_cursor s base l).
  { eapply run_at_cursor; [|exact Hr]. destruct expr_mode; discriminate. }
  destruct Hc as (it & rest & Ho & Hp & He). exists it, rest. unfold wf in Hw.
  split; [exact Ho|]. split; [exact Hp|]. split; [lia|]. intros Ht Hc. specialize (He Ht Hc). lia.
Qed.
