(* C15, scanner half: a special-character command {sp} {nil} {\n} {\r} {\t} {lb} {rb} between two stretches
   of text: from lexLeftDelim to the lexText that follows the closing brace. *)
From Soy Require Import Model.Bytes Model.Utf8 Model.Outcome Model.Token Generated.Tables Model.Lexer Spec.Text Spec.TextBody
  Proofs.Utf8Proofs Proofs.LexerPrim Proofs.LexerStates Proofs.LexTokens Proofs.LexBodyText Proofs.LexBodySeg.
From Coq Require Import ZifyBool Lia.
Open Scope Z_scope.

Lemma special_cmds_table : forall name out, In (name, out) special_cmds ->
  exists t, assoc_s name builtin_idents = Some t /\ assoc t parser_special_chars = Some out /\
            t <> itemLiteral /\ t <> itemCss /\ t <> pit_Text /\ t <> pit_Comment /\ t <> pit_EOF /\
            exists c0 cs, name = c0 :: cs /\ (c0 < 128)%N /\ c0 <> 123%N /\ c0 <> 47%N /\
              forallb (fun c => (c <? 128)%N && alnum_b c) cs = true /\ (letter_b c0 = true \/ c0 = 92%N).
Proof.
  intros name out Hin. unfold special_cmds in Hin.
  repeat (destruct Hin as [E|Hin]; [injection E as <- <-; eexists; split; [vm_compute; reflexivity|]; split; [vm_compute; reflexivity|];
    repeat (split; [discriminate|]); eexists; eexists; split; [reflexivity|]; repeat split; try lia; try discriminate;
    first [left; reflexivity|right; reflexivity]|]).
  contradiction.
Qed.

Section Cmd.
Variable uni_letter uni_digit : Z -> bool.
Hypothesis letter_ascii : forall c, (c < 128)%N -> uni_letter (Z.of_N c) = ((65 <=? c) && (c <=? 90) || (97 <=? c) && (c <=? 122))%N.
Hypothesis digit_ascii : forall c, (c < 128)%N -> uni_digit (Z.of_N c) = digit_b c.
Hypothesis letter_eof : uni_letter (-1) = false.
Hypothesis digit_eof : uni_digit (-1) = false.
Variable inp : bstr.
Notation steps := (steps uni_letter uni_digit inp 0).
Notation span := (span inp).
Notation ilen := (Z.of_nat (length inp)).

(* lexLeftDelim and lexBeginTag on "{" followed by a command name *)
Lemma delim_begin l c s : span l [] (123%N :: c :: s) -> (c < 128)%N -> c <> 123%N -> c <> 47%N ->
  exists l' p, steps 2 LLeftDelim l = Ok ((if (c =? 92)%N then LIdent else LInsideTag), l') /\ span l' [] (c :: s) /\
    l_out l' = {| t_typ := itemLeftDelim; t_pos := p; t_val := [123%N] |} :: l_out l /\
    l_last l' = {| t_typ := itemLeftDelim; t_pos := p; t_val := [123%N] |} /\ l_dd l' = false.
Proof.
  intros Hs Hc H1 H2.
  destruct (next_ascii inp l [] 123%N (c :: s) Hs ltac:(lia)) as (Hn1 & Hs2).
  destruct (next_ascii inp (adv l) ([] ++ [123%N]) c s Hs2 Hc) as (Hn2 & Hs3).
  pose proof (span_backup inp (adv l) ([] ++ [123%N]) c s Hs2) as Hsb2.
  set (l3 := set_dd (backup (adv (adv l))) false).
  assert (Hs3' : span l3 [123%N] (c :: s)).
  { destruct Hsb2 as (A & B & C). unfold l3, LexTokens.span, set_dd. cbn [l_start l_pos]. auto. }
  destruct (emit_span inp 0 itemLeftDelim l3 [123%N] (c :: s) Hs3') as (He & Hs4).
  assert (Hst2 : step uni_letter uni_digit inp ilen 0 LLeftDelim l = Ok (LBeginTag, emitted 0 itemLeftDelim l3 [123%N])).
  { cbn [step]. unfold lex_left_delim. rewrite Hn1. cbn [bind]. rewrite Hn2. cbn [bind].
    assert (E : (Z.of_N c =? 123) = false) by lia. rewrite E. fold l3. rewrite He. reflexivity. }
  set (l4 := emitted 0 itemLeftDelim l3 [123%N]) in *.
  destruct (next_ascii inp l4 [] c s Hs4 Hc) as (Hn4 & Hs5).
  pose proof (span_backup inp l4 [] c s Hs4) as Hsb4.
  assert (Hst3 : step uni_letter uni_digit inp ilen 0 LBeginTag l4 = Ok ((if (c =? 92)%N then LIdent else LInsideTag), backup (adv l4))).
  { cbn [step]. unfold lex_begin_tag, peek. rewrite Hn4. cbn [bind].
    destruct (N.eqb_spec c 92) as [->|Hne]; [reflexivity|].
    assert (E : ((Z.of_N c =? 47) || (Z.of_N c =? 92)) = false) by lia. rewrite E. reflexivity. }
  exists (backup (adv l4)), (Z.to_N (0 + l_pos l3)). split; [|split; [exact Hsb4|]].
  - change 2%nat with (1 + 1)%nat. rewrite (steps_app _ _ _ _ 1 1 _ _ _ _ (steps_one _ _ _ _ _ _ _ _ Hst2)). apply steps_one. exact Hst3.
  - unfold backup, adv, set_pos, l4, emitted, mktok, l3, set_dd. cbn [l_out l_last l_dd]. auto.
Qed.

(* a backslash command name, in state lexIdent *)
Lemma ident_backslash l cs s t : span l [] (92%N :: cs ++ s) -> forallb (fun c => (c <? 128)%N && alnum_b c) cs = true -> stops s ->
  assoc_s (92%N :: cs) builtin_idents = Some t -> t <> itemLiteral -> t <> itemCss ->
  exists l', steps 1 LIdent l = Ok (LInsideTag, l') /\ span l' [] s /\ sent t (92%N :: cs) l l'.
Proof.
  intros Hs Hcs Hst Ht Hnl Hnc.
  destruct (next_ascii inp l [] 92%N (cs ++ s) Hs ltac:(lia)) as (Hn & Hs1).
  destruct (alnum_loop_run uni_letter uni_digit letter_ascii digit_ascii letter_eof digit_eof inp cs (adv l) ([] ++ [92%N]) s
              (loop_fuel ilen (adv l)) Hs1 Hcs Hst) as (l3 & Hloop & Hs3 & Ho3 & Hla3 & Hd3).
  { pose proof (span_bounds inp _ _ _ Hs1) as (Hb0 & Hl0). rewrite app_length in Hl0. unfold loop_fuel. lia. }
  cbn [app] in Hs3.
  destruct (emit_span inp 0 t (backup l3) (92%N :: cs) s Hs3) as (He & Hs4).
  exists (emitted 0 t (backup l3) (92%N :: cs)). split; [|split; [exact Hs4|]].
  - apply steps_one. cbn [step]. unfold lex_ident. rewrite Hn. cbn [bind].
    change (Z.of_N 92 =? 46) with false. change (Z.of_N 92 =? 36) with false. change (Z.of_N 92 =? 47) with false.
    change (Z.of_N 92 =? 92) with true. cbv iota. cbn [bind]. rewrite Hloop. cbn [bind].
    rewrite (slice_span inp (backup l3) (92%N :: cs) s Hs3). cbn [bind]. rewrite Ht, He. cbn [bind].
    destruct (N.eqb_spec t itemLiteral); [congruence|]. destruct (N.eqb_spec t itemCss); [congruence|]. reflexivity.
  - apply sent_emitted; unfold backup, set_pos; cbn [l_out l_last l_dd]; [rewrite Ho3|rewrite Hla3|rewrite Hd3]; reflexivity.
Qed.

(* "}" closes the tag: lexInsideTag, lexRightDelim; the scanner is back in lexText *)
Lemma close_brace l s : span l [] (125%N :: s) -> l_dd l = false ->
  exists l' p, steps 2 LInsideTag l = Ok (LText, l') /\ span l' [] s /\
    l_out l' = {| t_typ := itemRightDelim; t_pos := p; t_val := [125%N] |} :: l_out l /\
    l_last l' = {| t_typ := itemRightDelim; t_pos := p; t_val := [125%N] |} /\ l_dd l' = false.
Proof.
  intros Hs Hdd.
  destruct (next_ascii inp l [] 125%N s Hs ltac:(lia)) as (Hn & Hs1).
  assert (Hst1 : step uni_letter uni_digit inp ilen 0 LInsideTag l = Ok (LRightDelim, adv l)).
  { cbn [step]. unfold lex_inside_tag. rewrite Hn. cbn [bind]. eval_tests. reflexivity. }
  destruct (emit_span inp 0 itemRightDelim (adv l) [125%N] s Hs1) as (He & Hs2).
  assert (Hst2 : step uni_letter uni_digit inp ilen 0 LRightDelim (adv l) = Ok (LText, emitted 0 itemRightDelim (adv l) [125%N])).
  { cbn [step]. unfold lex_right_delim, double_close. cbn [adv l_dd]. rewrite Hdd. cbn [bind]. rewrite He. reflexivity. }
  exists (emitted 0 itemRightDelim (adv l) [125%N]), (Z.to_N (0 + l_pos (adv l))). split; [|split; [exact Hs2|]].
  - change 2%nat with (1 + 1)%nat. rewrite (steps_app _ _ _ _ 1 1 _ _ _ _ (steps_one _ _ _ _ _ _ _ _ Hst1)). apply steps_one. exact Hst2.
  - unfold emitted, mktok, adv. cbn [l_out l_last l_dd]. auto.
Qed.

(* the whole command *)
Lemma lex_special_cmd l name out s : In (name, out) special_cmds -> span l [] ([123%N] ++ name ++ [125%N] ++ s) ->
  exists k l' ld c rd, steps k LLeftDelim l = Ok (LText, l') /\ span l' [] s /\ l_out l' = rd :: c :: ld :: l_out l /\
    t_typ ld = itemLeftDelim /\ t_typ rd = itemRightDelim /\ assoc (t_typ c) parser_special_chars = Some out /\
    l_last l' = rd /\ t_val rd = [125%N] /\ l_dd l' = false.
Proof.
  intros Hin Hs. destruct (special_cmds_table name out Hin) as (t & Hb & Hsp & Hnl & Hnc & _ & _ & _ & c0 & cs & -> & Hc0 & H123 & H47 & Hcs & Hkind).
  assert (Hs' : span l [] (123%N :: c0 :: cs ++ 125%N :: s)) by exact Hs.
  destruct (delim_begin l c0 (cs ++ 125%N :: s) Hs' Hc0 H123 H47) as (l1 & p1 & Hst1 & Hs1 & Ho1 & Hla1 & Hdd1).
  assert (Hstop : stops (125%N :: s)) by (cbn; split; [lia|reflexivity]).
  assert (Hmid : exists k2 l2, steps k2 (if (c0 =? 92)%N then LIdent else LInsideTag) l1 = Ok (LInsideTag, l2) /\
                   span l2 [] (125%N :: s) /\ sent t (c0 :: cs) l1 l2).
  { destruct Hkind as [Hlet| ->].
    - assert (E : (c0 =? 92)%N = false) by (unfold letter_b in Hlet; lia). rewrite E.
      destruct (lex_word uni_letter uni_digit letter_ascii digit_ascii letter_eof digit_eof inp 0 l1 c0 cs (125%N :: s) Hs1 Hc0 Hlet Hcs Hstop)
        as (l2 & A & B & C); [unfold word_type; rewrite Hb; exact Hnl|unfold word_type; rewrite Hb; exact Hnc|].
      unfold word_type in C. rewrite Hb in C. eauto.
    - change (92 =? 92)%N with true. cbv iota.
      destruct (ident_backslash l1 cs (125%N :: s) t Hs1 Hcs Hstop Hb Hnl Hnc) as (l2 & A & B & C). eauto. }
  destruct Hmid as (k2 & l2 & Hst2 & Hs2 & (p2 & Ho2 & Hla2 & Hdd2)).
  destruct (close_brace l2 s Hs2 ltac:(congruence)) as (l3 & p3 & Hst3 & Hs3 & Ho3 & Hla3 & Hdd3).
  exists (2 + (k2 + 2))%nat, l3. eexists; eexists; eexists. split.
  { rewrite (steps_app _ _ _ _ 2 _ _ _ _ _ Hst1), (steps_app _ _ _ _ k2 _ _ _ _ _ Hst2). exact Hst3. }
  split; [exact Hs3|]. split; [rewrite Ho3, Ho2, Ho1; reflexivity|]. cbn [t_typ t_val]. repeat split; try assumption.
Qed.

End Cmd.
