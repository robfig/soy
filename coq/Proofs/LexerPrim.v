(* A small Hoare layer for the lexer.  [okp x P] is the triple: x returned normally (no Crash,
   Diverge, OutOfFuel, OutOfModel) with a value satisfying P.  Each primitive of the scanner has one
   specification whose postcondition names the new state as an explicit function of the old one
   ([scanned], [sent]) and of a few integers, with the linear facts known about those.  A state
   function is verified by walking along its text with [okp_bind] / [okp_if]: the state stays an
   explicit term whose fields [lcbn] computes, and every side condition is linear arithmetic over a
   context that holds nothing but these facts. *)
From Soy Require Import Model.Bytes Model.Utf8 Model.Outcome Model.Token Generated.Tables Model.Lexer.
From Soy Require Export Proofs.BytesBase.
From Coq Require Import ZifyBool Lia.
Open Scope Z_scope.

(* the head of the item list is an EOF or error item: the state of a finished scan *)
Definition done_ok (l : lx) : Prop :=
  exists it rest, l_out l = it :: rest /\ (t_typ it = itemEOF \/ t_typ it = itemError).

(* least length of the text of an item: the parser takes val[1:] of $ident .ident .N items and val[2:] of
   ?.ident ?.N items *)
Definition val_min (t : N) : nat :=
  if ((t =? itemDollarIdent) || (t =? itemDotIdent) || (t =? itemDotIndex))%N then 1%nat
  else if ((t =? itemQuestionDotIdent) || (t =? itemQuestionDotIndex))%N then 2%nat else 0%nat.
(* EOF and error items end the scan *)
Definition is_final (t : N) : bool := ((t =? itemEOF) || (t =? itemError))%N.

(* an item lies inside the input (positions are base + an offset <= len) and is long enough for its type *)
Definition item_ok (lim : N) (it : tok) : Prop :=
  (t_pos it <= lim)%N /\ (val_min (t_typ it) <= length (t_val it))%nat.
Definition plain_ok (lim : N) (it : tok) : Prop := item_ok lim it /\ is_final (t_typ it) = false.
(* the items sent so far (most recent first): all well-formed; an EOF or error item only as the most
   recent one, and then the scan is over ([final] = true) *)
Definition items_ok (lim : N) (final : bool) (out : list tok) : Prop :=
  if final then
    match out with
    | it :: rest => item_ok lim it /\ is_final (t_typ it) = true /\ Forall (plain_ok lim) rest
    | [] => False
    end
  else Forall (plain_ok lim) out.

(* an item type with no minimum length that does not end the scan *)
Definition plain_type (t : N) : bool := Nat.eqb (val_min t) 0 && negb (is_final t).
Lemma plain_type_facts t : plain_type t = true -> val_min t = 0%nat /\ is_final t = false.
Proof. unfold plain_type. intros H. apply Bool.andb_true_iff in H. destruct H as [H1 H2]. apply Nat.eqb_eq in H1. apply Bool.negb_true_iff in H2. auto. Qed.

Lemma to_N_mono a c : a <= c -> (Z.to_N a <= Z.to_N c)%N.
Proof. intros H. destruct a, c; cbn; lia. Qed.

Lemma items_ok_push lim out it :
  items_ok lim false out -> item_ok lim it -> items_ok lim (is_final (t_typ it)) (it :: out).
Proof.
  unfold items_ok. intros Ho Hi. destruct (is_final (t_typ it)) eqn:E.
  - repeat split; try assumption; apply Hi.
  - constructor; [split; assumption|assumption].
Qed.

Lemma items_ok_done lim l : items_ok lim true (l_out l) -> done_ok l.
Proof.
  unfold items_ok, done_ok. destruct (l_out l) as [|it rest]; [contradiction|]. intros (_ & Hf & _).
  exists it, rest. split; [reflexivity|]. unfold is_final in Hf. apply Bool.orb_true_iff in Hf.
  destruct Hf as [Hf|Hf]; apply N.eqb_eq in Hf; auto.
Qed.

Definition okp {A} (x : outcome A) (P : A -> Prop) : Prop :=
  match x with Ok v => P v | _ => False end.

Lemma okp_bind {A B} (x : outcome A) (f : A -> outcome B) (P : A -> Prop) (Q : B -> Prop) :
  okp x P -> (forall v, P v -> okp (f v) Q) -> okp (bind x f) Q.
Proof. destruct x; cbn; intros H HF; try contradiction. now apply HF. Qed.

Lemma okp_weaken {A} (x : outcome A) (P Q : A -> Prop) :
  okp x P -> (forall v, P v -> Q v) -> okp x Q.
Proof. destruct x; cbn; auto. Qed.

Lemma okp_ok {A} (v : A) (P : A -> Prop) : P v -> okp (Ok v) P.
Proof. exact (fun H => H). Qed.

Lemma okp_assoc {A B C} (x : outcome A) (f : A -> outcome B) (g : B -> outcome C) (Q : C -> Prop) :
  okp (bind x (fun v => bind (f v) g)) Q -> okp (bind (bind x f) g) Q.
Proof. destruct x; exact id. Qed.

Lemma okp_if {A} (c : bool) (x y : outcome A) (P : A -> Prop) :
  (c = true -> okp x P) -> (c = false -> okp y P) -> okp (if c then x else y) P.
Proof. destruct c; auto. Qed.

(* an `if` whose branches go on into the same continuation, which is then verified once per branch *)
Lemma okp_bind_if {A B} (c : bool) (x y : outcome A) (f : A -> outcome B) (Q : B -> Prop) :
  (c = true -> okp (bind x f) Q) -> (c = false -> okp (bind y f) Q) -> okp (bind (if c then x else y) f) Q.
Proof. destruct c; auto. Qed.

Lemma drop_nonempty (n : nat) (s : bstr) : (n < length s)%nat -> drop n s <> [].
Proof. intros H E. apply (f_equal (@length _)) in E. rewrite drop_length in E. cbn in E. lia. Qed.

Lemma index_of_bound (sep : bstr) : forall s i j, index_of sep s i = Some j ->
  i <= j /\ j - i + Z.of_nat (length sep) <= Z.of_nat (length s).
Proof.
  induction s as [|c s IH]; intros i j H; cbn [index_of] in H.
  - destruct (is_prefix sep []) eqn:E; [|discriminate]. injection H as <-. apply is_prefix_length in E. cbn in *. lia.
  - destruct (is_prefix sep (c :: s)) eqn:E.
    + injection H as <-. apply is_prefix_length in E. cbn [length] in *. lia.
    + apply IH in H. cbn [length]. lia.
Qed.

(* the width of a decoded rune: at least one byte, never more than there are; an ASCII rune is one byte *)
Lemma decode_rune_width (s : bstr) : s <> [] ->
  (1 <= snd (decode_rune s) <= length s)%nat /\ ((fst (decode_rune s) < 128)%N -> snd (decode_rune s) = 1%nat).
Proof.
  intros Hne. destruct s as [|b0 s]; [congruence|]. unfold decode_rune, is_cont, in_range, rune_error.
  destruct s as [|b1 [|b2 [|b3 s]]];
  repeat match goal with |- context [if ?c then _ else _] => destruct c eqn:? end;
  cbn [fst snd length]; (split; [lia|intros; try lia]);
  repeat match goal with H : context [if ?c then _ else _] |- _ => destruct c eqn:? end; lia.
Qed.

(* after reading: only pos, width and ticks have changed *)
Definition scanned (l : lx) (p w t : Z) : lx :=
  {| l_pos := p; l_start := l_start l; l_width := w; l_dd := l_dd l; l_last := l_last l; l_out := l_out l; l_ticks := t |}.

Lemma scanned_id l : l = scanned l (l_pos l) (l_width l) (l_ticks l).
Proof. destruct l; reflexivity. Qed.

(* after emit has sent [it]: the pending text is gone *)
Definition sent (it : tok) (l : lx) : lx :=
  {| l_pos := l_pos l; l_start := l_pos l; l_width := l_width l; l_dd := l_dd l; l_last := it; l_out := it :: l_out l; l_ticks := l_ticks l |}.

Ltac lcbn := cbn [l_pos l_start l_width l_dd l_last l_out l_ticks set_pos set_start set_dd tick backup ignore scanned sent].
Tactic Notation "lcbn" "in" hyp(H) :=
  cbn [l_pos l_start l_width l_dd l_last l_out l_ticks set_pos set_start set_dd tick backup ignore scanned sent] in H.

(* the facts the proofs need about the helper predicates regenerated from the Go source: none of them holds of eof *)
Lemma isSpace_nonneg r : gen_isSpace r = true -> 0 <= r < 128.
Proof. unfold gen_isSpace. lia. Qed.
Lemma isEndOfLine_nonneg r : gen_isEndOfLine r = true -> 0 <= r < 128.
Proof. unfold gen_isEndOfLine. lia. Qed.
Lemma isSpaceEOL_nonneg r : gen_isSpaceEOL r = true -> 0 <= r < 128.
Proof.
  unfold gen_isSpaceEOL. intros H. apply Bool.orb_true_iff in H.
  destruct H; [apply isSpace_nonneg|apply isEndOfLine_nonneg]; assumption.
Qed.
Lemma isLetterOrUnderscore_nonneg r : gen_isLetterOrUnderscore r = true -> 65 <= r < 128.
Proof. unfold gen_isLetterOrUnderscore. lia. Qed.
Lemma in_set_nonneg v r : in_set v r = true -> 0 <= r < 128.
Proof. unfold in_set. lia. Qed.

Section Prim.
Variable inp : bstr.
Notation ilen := (Z.of_nat (length inp)).
Variable base : Z.

(* next() at l returned the rune r, w bytes wide: end of input, or a rune inside the input *)
Definition read (l : lx) (r w : Z) : Prop :=
  (r = -1 /\ w = 0 /\ ilen <= l_pos l) \/ (0 <= r /\ 1 <= w /\ l_pos l + w <= ilen /\ (r < 128 -> w = 1)).

Lemma next_read l : 0 <= l_pos l ->
  okp (next inp ilen l) (fun '(r, l') => exists w, l' = scanned l (l_pos l + w) w (l_ticks l + 1) /\ read l r w).
Proof.
  intros Hp. unfold next.
  destruct (ilen <=? l_pos l) eqn:E.
  { exists 0. rewrite Z.add_0_r. split; [reflexivity|left; unfold eof; lia]. }
  destruct (l_pos l <? 0) eqn:E2; [lia|].
  assert (Hlt : (Z.to_nat (l_pos l) < length inp)%nat) by lia.
  pose proof (decode_rune_width _ (drop_nonempty _ _ Hlt)) as [Hw Hascii].
  rewrite drop_length in Hw.
  destruct (decode_rune (drop (Z.to_nat (l_pos l)) inp)) as [r w]. cbn [fst snd] in *.
  exists (Z.of_nat w). split; [reflexivity|right; lia].
Qed.

Lemma peek_read l : 0 <= l_pos l ->
  okp (peek inp ilen l) (fun '(r, l') => exists w, l' = scanned l (l_pos l) w (l_ticks l + 1) /\ read l r w).
Proof.
  intros Hp. unfold peek. eapply okp_bind; [apply next_read, Hp|]. intros [r l1] (w & -> & Hr).
  exists w. split; [|exact Hr]. unfold backup, set_pos, scanned. lcbn. f_equal. lia.
Qed.

Lemma slice_len a e : 0 <= a <= e /\ e <= ilen -> okp (slice inp ilen a e) (fun v => Z.of_nat (length v) = e - a).
Proof.
  intros H. unfold slice.
  destruct ((a <? 0) || (e <? a) || (ilen <? e)) eqn:E; [lia|]. cbn.
  rewrite take_length; [lia|]. rewrite drop_length. lia.
Qed.

Lemma byte_at_spec i : 0 <= i < ilen -> okp (byte_at inp ilen i) (fun _ => True).
Proof.
  intros H. unfold byte_at. destruct ((i <? 0) || (ilen <=? i)) eqn:E; [lia|].
  destruct (drop (Z.to_nat i) inp) eqn:Ed; [|exact I].
  exfalso. apply (drop_nonempty (Z.to_nat i) inp); [lia|exact Ed].
Qed.

Notation lim := (Z.to_N (base + ilen)).

(* emit: the pending text input[start:pos] must be long enough for the item type *)
Lemma emit_sent t l :
  0 <= l_start l <= l_pos l /\ l_pos l <= ilen /\ Z.of_nat (val_min t) <= l_pos l - l_start l ->
  items_ok lim false (l_out l) ->
  okp (emit inp ilen base t l)
      (fun l' => exists it, l' = sent it l /\ t_typ it = t /\ t_pos it = Z.to_N (base + l_pos l) /\
                            items_ok lim (is_final t) (it :: l_out l)).
Proof.
  intros H Hit. unfold emit.
  destruct (ilen <? l_pos l) eqn:E; [lia|].
  eapply okp_bind; [apply slice_len; lia|]. intros v Hlen. cbn beta in Hlen.
  eexists. split; [reflexivity|]. do 2 (split; [reflexivity|]).
  apply (items_ok_push lim (l_out l) {| t_typ := t; t_pos := Z.to_N (base + l_pos l); t_val := v |}); [exact Hit|].
  split; cbn [t_pos t_typ t_val]; [apply to_N_mono|]; lia.
Qed.

Lemma emit_plain t l : plain_type t = true -> 0 <= l_start l <= l_pos l /\ l_pos l <= ilen -> items_ok lim false (l_out l) ->
  okp (emit inp ilen base t l) (fun l' => exists it, l' = sent it l /\ items_ok lim false (it :: l_out l)).
Proof.
  intros Ht H Hit. apply plain_type_facts in Ht. destruct Ht as [Hv Hf].
  eapply okp_weaken; [apply emit_sent; [rewrite Hv; lia|exact Hit]|].
  intros l' (it & -> & _ & _ & Hi). rewrite Hf in Hi. exists it. split; [reflexivity|exact Hi].
Qed.

Definition emit_post (t : N) (l l' : lx) : Prop :=
  l_pos l' = l_pos l /\ l_start l' = l_pos l /\ l_width l' = l_width l /\ l_ticks l' = l_ticks l /\ l_dd l' = l_dd l /\
  items_ok lim (is_final t) (l_out l') /\
  exists it, l_out l' = it :: l_out l /\ t_typ it = t /\ l_last l' = it /\ t_pos it = Z.to_N (base + l_pos l).

Lemma emit_to_spec t st l : 0 <= l_start l <= l_pos l -> l_pos l <= ilen ->
  items_ok lim false (l_out l) -> Z.of_nat (val_min t) <= l_pos l - l_start l ->
  okp (emit_to inp ilen base t st l) (fun p => fst p = st /\ emit_post t l (snd p)).
Proof.
  intros H1 H2 H3 H4. unfold emit_to. eapply okp_bind; [apply emit_sent; [lia|exact H3]|].
  intros l1 (it & -> & Ht & Hp & Hi). split; [reflexivity|]. unfold emit_post. lcbn. cbn [snd].
  repeat split; try exact Hi. exists it. repeat split; assumption.
Qed.

Lemma accept_spec v l : 0 <= l_pos l <= ilen ->
  okp (accept inp ilen v l)
      (fun '(b, l') => exists w, l' = scanned l (l_pos l + Z.b2z b) w (l_ticks l + 1) /\
                                 0 <= w /\ l_pos l + Z.b2z b <= ilen).
Proof.
  intros Hp. unfold accept. eapply okp_bind; [apply next_read; lia|]. intros [r l1] (w & -> & Hr).
  unfold read in Hr. apply okp_if; intros E; exists w; cbn [Z.b2z].
  - apply in_set_nonneg in E. assert (w = 1) as -> by lia. split; [reflexivity|lia].
  - split; [|lia]. unfold backup, set_pos, scanned. lcbn. f_equal. lia.
Qed.

(* after a scanning loop `for test(l.next()) {}`: the rune read last (w bytes, up to p) failed the test; the
   work is the bytes passed plus that last call *)
Definition scan_post (l l' : lx) : Prop :=
  exists p w t, l' = scanned l p w t /\
    0 <= w /\ l_pos l <= p - w /\ p <= ilen /\ l_ticks l < t <= l_ticks l + (p - w - l_pos l) + 1.

Lemma scan_loop_spec (test : Z -> bool) (loop : nat -> lx -> outcome lx) :
  test (-1) = false ->
  (forall f l, loop (S f) l = bind (next inp ilen l) (fun '(r, l1) => if test r then loop f l1 else Ok l1)) ->
  forall fuel l, 0 <= l_pos l <= ilen -> (Z.to_nat (ilen - l_pos l) < fuel)%nat -> okp (loop fuel l) (scan_post l).
Proof.
  intros Htest Heq. induction fuel as [|f IH]; intros l Hp Hf; [lia|]. rewrite Heq.
  eapply okp_bind; [apply next_read; lia|]. intros [r l1] (w & -> & Hr). unfold read in Hr.
  apply okp_if; intros E.
  - assert (Hne : r <> -1) by (intros ->; rewrite Htest in E; discriminate).
    eapply okp_weaken; [apply IH; lcbn; lia|].
    intros l2 (p & w2 & t & -> & H2). lcbn in H2. exists p, w2, t. split; [reflexivity|lia].
  - exists (l_pos l + w), w, (l_ticks l + 1). split; [reflexivity|lia].
Qed.

Lemma loop_fuel_ok l : 0 <= l_pos l <= ilen -> (Z.to_nat (ilen - l_pos l) < loop_fuel ilen l)%nat.
Proof. unfold loop_fuel. lia. Qed.

Lemma accept_run_spec v l : 0 <= l_pos l <= ilen ->
  okp (accept_run inp ilen v l)
      (fun '(b, l') => exists p w t, l' = scanned l p w t /\ b = (l_pos l <? p) /\
         0 <= w /\ l_pos l <= p <= ilen /\ l_ticks l < t <= l_ticks l + (p - l_pos l) + 1).
Proof.
  intros Hp. unfold accept_run.
  eapply okp_bind; [apply (scan_loop_spec (in_set v) (fun f => accept_run_loop inp ilen f v));
                    [reflexivity|reflexivity|exact Hp|apply loop_fuel_ok, Hp]|].
  intros l1 (p & w & t & -> & H). exists (p - w), w, t. split; [reflexivity|]. split; [reflexivity|lia].
Qed.

(* the pending text, less its last bk bytes, has been sent or ignored, or there was none *)
Definition met_post (bk : Z) (l l' : lx) : Prop :=
  (l_pos l' = l_pos l /\ l_ticks l' = l_ticks l /\
   l_start l <= l_start l' /\ (l_start l' = l_start l \/ l_start l' = l_pos l - bk)) /\
  items_ok lim false (l_out l').

Lemma maybe_emit_text_spec l bk : 0 <= bk /\ 0 <= l_start l /\ l_pos l <= ilen -> items_ok lim false (l_out l) ->
  okp (maybe_emit_text inp ilen base l bk) (met_post bk l).
Proof.
  intros H Hit. unfold maybe_emit_text.
  apply okp_if; intros E; [|split; [lia|exact Hit]].
  eapply okp_bind; [apply slice_len; lcbn; lia|]. intros v _.
  eapply okp_bind with (P := fun l2 => l_pos l2 = l_pos l - bk /\ l_start l2 = l_pos l - bk /\ l_ticks l2 = l_ticks l /\
                                       items_ok lim false (l_out l2)).
  - apply okp_if; intros _; [lcbn; repeat split; exact Hit|].
    eapply okp_weaken; [apply emit_plain; [reflexivity|lcbn; lia|exact Hit]|].
    intros l2 (it & -> & Hi). lcbn. repeat split. exact Hi.
  - intros l2 (H1 & H2 & H3 & Hi). split; [lcbn; lia|exact Hi].
Qed.

Lemma skip_space_loop_spec fuel l : 0 <= l_pos l <= ilen -> (Z.to_nat (ilen - l_pos l) < fuel)%nat ->
  okp (skip_space_loop inp ilen fuel l) (scan_post l).
Proof. apply (scan_loop_spec gen_isSpaceEOL (skip_space_loop inp ilen)); reflexivity. Qed.

Lemma skip_space_spec l : 0 <= l_pos l <= ilen ->
  okp (skip_space inp ilen l)
      (fun l' => exists p w t, l' = ignore (scanned l p w t) /\
         l_pos l <= p <= ilen /\ l_ticks l < t <= l_ticks l + (p - l_pos l) + 1).
Proof.
  intros Hp. unfold skip_space.
  eapply okp_bind; [apply skip_space_loop_spec; [exact Hp|apply loop_fuel_ok, Hp]|].
  intros l1 (p & w & t & -> & H). exists (p - w), w, t. split; [reflexivity|lia].
Qed.

End Prim.

Section PrimAlnum.
Variable uni_letter uni_digit : Z -> bool.
Hypothesis letter_eof : uni_letter (-1) = false.
Hypothesis digit_eof : uni_digit (-1) = false.
Variable inp : bstr.
Notation ilen := (Z.of_nat (length inp)).

Lemma alnum_loop_spec fuel l : 0 <= l_pos l <= ilen -> (Z.to_nat (ilen - l_pos l) < fuel)%nat ->
  okp (alnum_loop uni_letter uni_digit inp ilen fuel l) (scan_post inp l).
Proof.
  apply (scan_loop_spec inp (is_alnum uni_letter uni_digit) (alnum_loop uni_letter uni_digit inp ilen)); [|reflexivity].
  unfold is_alnum, gen_isAlphaNumeric. rewrite letter_eof, digit_eof. reflexivity.
Qed.

End PrimAlnum.
