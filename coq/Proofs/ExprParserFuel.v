(* The expression parser model is monotone in its budgets: a run that does not end in PFuel returns the
   same result under every larger fuel (recursion budget and loop budgets alike).  So "for every
   sufficiently large fuel" statements hold at the concrete budget of the entry points as soon as
   that budget is known not to run out (Proofs/ParserProofs.v). *)
From Soy Require Import Model.Bytes Model.Num Model.Values Model.Ast Model.Token Model.NumLit Model.Quote Model.ExprParser
  Generated.Tables.
Require Import Lia.
Open Scope N_scope.

Definition le_res {A} (r r' : presult A) : Prop := r = PFuel \/ r = r'.

Lemma le_refl {A} (r : presult A) : le_res r r. Proof. right. reflexivity. Qed.
Lemma le_fuel {A} (r : presult A) : le_res PFuel r. Proof. left. reflexivity. Qed.

Lemma le_bind {A B} (x x' : presult A) (k k' : A -> pst -> presult B) :
  le_res x x' -> (forall a st, le_res (k a st) (k' a st)) -> le_res (pbind x k) (pbind x' k').
Proof.
  intros [->| ->] Hk; [left; reflexivity|]. destruct x' as [a st|t c st|m|]; cbn [pbind]; try apply le_refl. apply Hk.
Qed.

(* Both sides are the same body over related parameters: descend through binds, conditionals and matches,
   dispatching on the head of the left side, so that no lemma is ever unified against an unfolded body.  A call of
   another procedure is closed from the hint base [le] (the lemmas below, as they are proved) and the context. *)
Create HintDb le discriminated.
#[export] Hint Extern 1 (_ <= _)%nat => lia : le.
Ltac le_go :=
  repeat lazymatch goal with
  | |- le_res (pbind _ _) (pbind _ _) => apply le_bind; [|intros ? ?]
  | |- le_res (if ?c then _ else _) (if ?c then _ else _) => destruct c
  | |- le_res (match ?c with _ => _ end) (match ?c with _ => _ end) => destruct c
  | |- le_res ?x ?y => first [constr_eq x y; apply le_refl | progress cbv zeta | solve [auto with le nocore]]
  end.
(* a loop on a budget [lf]: out of budget on the left, or one more round on both sides *)
Ltac le_loop lf IH := induction lf as [|lf IH]; intros [|?lf'] ?Hle; intros; [apply le_fuel|apply le_fuel|lia|].

Section Body.
Variable w w' : N -> pst -> presult node.
Hypothesis Hw : forall p st, le_res (w p st) (w' p st).

Lemma ternary_le c st : le_res (parse_ternary w c st) (parse_ternary w' c st).
Proof. unfold parse_ternary. le_go. Qed.
#[local] Hint Resolve ternary_le : le.

Lemma expr_loop_le : forall lf lf', (lf <= lf')%nat -> forall p n st, le_res (expr_loop w lf p n st) (expr_loop w' lf' p n st).
Proof. le_loop lf IH. cbn [expr_loop]. le_go. Qed.

Lemma data_ref_loop_le : forall lf lf', (lf <= lf')%nat -> forall p key acc st,
  le_res (data_ref_loop w lf p key acc st) (data_ref_loop w' lf' p key acc st).
Proof. le_loop lf IH. cbn [data_ref_loop]. le_go. Qed.

Lemma list_loop_le : forall lf lf', (lf <= lf')%nat -> forall p items st,
  le_res (list_loop w lf p items st) (list_loop w' lf' p items st).
Proof. le_loop lf IH. cbn [list_loop]. le_go. Qed.

Lemma map_loop_le : forall lf lf', (lf <= lf')%nat -> forall p items key st,
  le_res (map_loop w lf p items key st) (map_loop w' lf' p items key st).
Proof. le_loop lf IH. cbn [map_loop]. le_go. Qed.
#[local] Hint Resolve expr_loop_le data_ref_loop_le list_loop_le map_loop_le : le.

Lemma parse_list_or_map_le lf lf' t st : (lf <= lf')%nat ->
  le_res (parse_list_or_map w lf t st) (parse_list_or_map w' lf' t st).
Proof. intros Hle. unfold parse_list_or_map, parse_map_literal. le_go. Qed.

Lemma global_loop_le : forall lf lf', (lf <= lf')%nat -> forall p name nx st,
  le_res (global_loop lf p name nx st) (global_loop lf' p name nx st).
Proof. le_loop lf IH. cbn [global_loop]. le_go. Qed.

Lemma func_loop_le : forall lf lf', (lf <= lf')%nat -> forall p name args st,
  le_res (func_loop w lf p name args st) (func_loop w' lf' p name args st).
Proof. le_loop lf IH. cbn [func_loop]. le_go. Qed.
#[local] Hint Resolve parse_list_or_map_le global_loop_le func_loop_le : le.

Lemma new_value_node_le lf lf' t st : (lf <= lf')%nat ->
  le_res (new_value_node w lf t st) (new_value_node w' lf' t st).
Proof. intros Hle. unfold new_value_node, parse_data_ref, new_function_node. le_go. Qed.
#[local] Hint Resolve new_value_node_le : le.

Lemma parse_first_term_le lf lf' st : (lf <= lf')%nat -> le_res (parse_first_term w lf st) (parse_first_term w' lf' st).
Proof. intros Hle. unfold parse_first_term. le_go. Qed.
#[local] Hint Resolve parse_first_term_le : le.

Lemma parse_expr_body_le lf lf' p st : (lf <= lf')%nat -> le_res (parse_expr_body w lf p st) (parse_expr_body w' lf' p st).
Proof. intros Hle. unfold parse_expr_body. le_go. Qed.

Lemma directive_args_loop_le : forall lf lf', (lf <= lf')%nat -> forall args st,
  le_res (directive_args_loop w lf args st) (directive_args_loop w' lf' args st).
Proof. le_loop lf IH. cbn [directive_args_loop]. le_go. Qed.
#[local] Hint Resolve directive_args_loop_le : le.

Lemma print_loop_le : forall lf lf', (lf <= lf')%nat -> forall p e dirs st,
  le_res (print_loop w lf p e dirs st) (print_loop w' lf' p e dirs st).
Proof. le_loop lf IH. cbn [print_loop]. le_go. Qed.

End Body.

Theorem parse_expr_le : forall f f', (f <= f')%nat -> forall p st, le_res (parse_expr f p st) (parse_expr f' p st).
Proof. le_loop f IH. cbn [parse_expr]. apply parse_expr_body_le; [intros; apply IH|]; lia. Qed.

Theorem parse_print_le f f' p st : (f <= f')%nat -> le_res (parse_print f p st) (parse_print f' p st).
Proof.
  intros Hle. unfold parse_print, parse_print_body. apply le_bind; [apply parse_expr_le; exact Hle|].
  intros e st1. apply print_loop_le; [apply parse_expr_le; exact Hle | exact Hle].
Qed.

(* two runs that both return (no PFuel) return the same *)
Lemma parse_expr_agree f f' p st : parse_expr f p st <> PFuel -> parse_expr f' p st <> PFuel -> parse_expr f p st = parse_expr f' p st.
Proof.
  intros H1 H2. destruct (Nat.le_ge_cases f f') as [L|L].
  - destruct (parse_expr_le f f' L p st) as [E|E]; [contradiction | exact E].
  - destruct (parse_expr_le f' f L p st) as [E|E]; [contradiction | symmetry; exact E].
Qed.

Lemma parse_print_agree f f' p st : parse_print f p st <> PFuel -> parse_print f' p st <> PFuel -> parse_print f p st = parse_print f' p st.
Proof.
  intros H1 H2. destruct (Nat.le_ge_cases f f') as [L|L].
  - destruct (parse_print_le f f' p st L) as [E|E]; [contradiction | exact E].
  - destruct (parse_print_le f' f p st L) as [E|E]; [contradiction | symmetry; exact E].
Qed.
