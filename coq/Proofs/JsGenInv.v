(* The writer invariant of Proofs/JsGenProofs.v carried through the whole
   generator: for a chunk predicate Q that holds of the generator's own
   emissions and a node predicate Pn closed under taking children, walking a
   node in Pn only appends chunks in Q. *)
From Soy Require Import Model.Bytes Model.Num Model.Values Model.Outcome Model.Ast Model.Utf8 Model.JsEscape
  Generated.Tables Model.JsGen Spec.JsOut Proofs.BytesBase Proofs.JsGenProofs.
Open Scope N_scope.
#[local] Arguments assoc_s {A} k l : simpl never.

(* every CText the generator writes inside template bodies and file headers
   (the function header and the namespace declaration opener are kept apart) *)
Definition body_texts : list bstr :=
  [t_nl; t_pluseq; t_semi_nl; t_var; t_eq_empty; t_eq; t_semi; t_null; t_true; t_false; t_comma; t_comma_sp; t_colon;
   t_colon_sp; t_lbrack; t_rbrack; t_lbrace; t_rbrace; t_lpar; t_rpar; t_dot; t_neg_open; t_not_open; t_op_open; t_op_mid1;
   t_op_mid2; t_op_close; t_elvis1; t_elvis2; t_tern1; t_css_tail; t_debugger; t_console_log; t_close_semi; t_hdr1; t_hdr2;
   t_ns2; t_ns3; t_optdata_init; t_var_output; t_return_output; t_fn_end; t_truncate_true; t_eq0; t_eqeq; t_minus1;
   t_opt_ij; t_opt_data; t_opt_data_dot; t_nullsafe; t_empty_obj; t_augment; t_augment_mid; t_augment_end; t_call_tail;
   t_else; t_if_open; t_brace_nl; t_for_open; t_semi_sp; t_lt; t_for_close; t_length; t_gt0; t_eq0_semi; t_plusplus;
   t_else_block; t_switch_open; t_case; t_default; t_break; t_plural_open; t_plural_close; [];
   t_count1; t_minus; t_count2; t_count3; t_plus; t_times].

(* texts that come from the regenerated tables *)
Definition piece_texts (ps : list (bstr + nat)) : list bstr :=
  flat_map (fun p => match p with inl t => [t] | inr _ => [] end) ps.
Definition table_texts : list bstr :=
  flat_map (fun e => flat_map (fun a => piece_texts (snd a)) (snd (snd e))) js_funcs
  ++ map (fun e => t_soy_dd ++ snd e ++ t_lpar) js_builtin_funcs
  ++ map (fun e => fst (snd e)) js_directives
  ++ piece_texts js_es5_template_text ++ piece_texts js_es6_template_text
  ++ piece_texts js_es5_call_text ++ piece_texts js_es6_call_text
  ++ piece_texts js_es5_directive ++ piece_texts js_es6_directive
  ++ piece_texts js_es5_function ++ piece_texts js_es6_function.


Lemma pick_alt_in alts n ps : pick_alt alts n = Some ps -> exists g, In (g, ps) alts.
Proof.
  induction alts as [|[g ps'] alts IH]; cbn; intro H; [discriminate|].
  destruct g as [k|].
  - destruct (Nat.eqb k n). inversion H; subst. exists (Some k); auto. destruct (IH H) as (g & Hin). exists g; auto.
  - inversion H; subst. exists None; auto.
Qed.

#[local] Create HintDb jsp discriminated.
#[local] Hint Constants Opaque : jsp.
Section Walk.
Variable o : jopts.
Variable Q : chunk -> Prop.
Variable Pn : node -> Prop.

Hypothesis Pn_children : forall n, Pn n -> Forall Pn (children n).
Hypothesis Pn_int : forall p z, Pn (NInt p z).

Hypothesis Q_body : forall t, In t body_texts -> Q (CText t).
Hypothesis Q_table : forall t, In t table_texts -> Q (CText t).
Hypothesis Q_indent : forall n, Q (CText (indent_text n)).
Hypothesis Q_sym : forall op_, Q (CText (binop_sym op_)).
Hypothesis Q_lit : forall q s, q = 39 \/ q = 34 -> Q (CStrLit q s).
Hypothesis Q_name : forall s, Q (CName s).
Hypothesis Q_num_z : forall z, Q (CNum (dec_of_Z z)).
Hypothesis Q_num_n : forall n, Q (CNum (dec_of_N n)).
Hypothesis Q_num_f : forall f s, float_node_string f = Some s -> Q (CNum s).
Hypothesis Q_file : forall s, Q (CFile (line_comment_safe s)).
Hypothesis Q_tmpl : forall p nm bd ae pr, Pn (NTemplate p nm bd ae pr) -> Q (CText t_fn_params).
Hypothesis Q_ns : forall p nm ae, Pn (NNamespace p nm ae) -> Q (CText t_ns1).

Lemma Q_body' t : existsb (bstr_eqb t) body_texts = true -> Q (CText t).
Proof. intro H. apply existsb_exists in H. destruct H as (t' & Hin & He). apply bstr_eqb_eq in He. subst. auto. Qed.

Ltac qb := apply Q_body'; reflexivity.
Ltac solveQ := first [ apply Q_name | apply Q_num_z | apply Q_num_n | (eapply Q_num_f; eassumption) | apply Q_indent | apply Q_sym | apply Q_file
                     | (apply Q_lit; auto; fail) | qb | assumption ].
Ltac solveF :=
  repeat lazymatch goal with
         | |- Forall _ [] => apply Forall_nil
         | |- Forall _ (_ :: _) => apply Forall_cons; [solveQ|]
         | |- Forall _ (_ ++ _) => apply Forall_app; split
         | |- Forall _ (if ?b then _ else _) => destruct b
         | |- Forall _ _ => assumption
         end.
#[local] Hint Extern 0 (Forall Q _) => solveF : jsp.

Notation jsp := (jspec Q).

(* One step along the syntax of an action: a bind is split, a primitive is
   discharged by its rule, a case distinction is made, and anything else is an
   action with a lemma in the hint database [jsp]. *)
Ltac jstep :=
  lazymatch goal with
  | |- jspec _ _ (jret _) => apply jspec_ret; try exact I
  | |- jspec _ _ (jfail _) => apply jspec_fail
  | |- jspec _ _ (@jbind unit _ _ _) => apply jspec_bind with (R1 := T); [| intros ? ?]
  | |- jspec _ _ (@jbind (list chunk) _ _ _) => apply jspec_bind with (R1 := Forall Q); [| intros ? ?]
  | |- jspec _ _ (jbind _ _) => eapply jspec_bind; [| intros ? ?]
  | |- jspec _ _ jget => apply jspec_get
  | |- jspec _ _ (jemit _) => apply jspec_emit; solveF
  | |- jspec _ _ (jtxt (if ?b then _ else _)) => destruct b
  | |- jspec _ _ (jtxt _) => apply jspec_txt; solveQ
  | |- jspec _ _ (jmod _) => apply jspec_mod; intro; reflexivity
  | |- jspec _ _ (match float_node_string ?f with _ => _ end) => let E := fresh "Ef" in destruct (float_node_string f) eqn:E
  | |- jspec _ _ (match ?x with _ => _ end) => destruct x
  | |- jspec _ _ (if ?b then _ else _) => destruct b
  | |- jspec _ _ (fun _ => _) => apply jspec_stuck; intros ? ?; discriminate
  | |- _ => solve [eauto with jsp]
  end.
Ltac jgo := repeat jstep.

Lemma sp_jindent : jsp T jindent.
Proof. unfold jindent. jgo. Qed.
Lemma sp_jsln cs : Forall Q cs -> jsp T (jsln cs).
Proof. intro F. unfold jsln. jstep. apply sp_jindent. jgo. Qed.
Lemma sp_indent_inc : jsp T indent_inc.
Proof. unfold indent_inc. jgo. Qed.
Lemma sp_indent_dec : jsp T indent_dec.
Proof. unfold indent_dec. jgo. Qed.
Lemma sp_bufname : jsp (Forall Q) bufname.
Proof. unfold bufname. jgo. Qed.
Lemma sp_push : jsp T jsc_push.
Proof. unfold jsc_push. jgo. Qed.
Lemma sp_pop : jsp T jsc_pop.
Proof. unfold jsc_pop. jgo. Qed.
Lemma sp_genname v : jsp T (jsc_genname v).
Proof. unfold jsc_genname. jgo. Qed.
Lemma sp_bind v g : jsp T (jsc_bind v g).
Proof. unfold jsc_bind. jgo. Qed.
#[local] Hint Resolve sp_jindent sp_jsln sp_indent_inc sp_indent_dec sp_bufname sp_push sp_pop sp_genname sp_bind : jsp.
Lemma sp_makevar v : jsp T (jsc_makevar v).
Proof. unfold jsc_makevar. jgo. Qed.
Lemma sp_lookup_var v : jsp T (lookup_var v).
Proof. unfold lookup_var. jgo. Qed.
Lemma sp_push_for_range v : jsp T (jsc_push_for_range v).
Proof. unfold jsc_push_for_range. jgo. Qed.
Lemma sp_push_for_each v : jsp T (jsc_push_for_each v).
Proof. unfold jsc_push_for_each. jgo. Qed.
#[local] Hint Resolve sp_makevar sp_lookup_var sp_push_for_range sp_push_for_each : jsp.

Lemma fmt_chunks_Q ps name : (forall t, In t (piece_texts ps) -> Q (CText t)) -> Forall Q (fmt_chunks ps name).
Proof.
  induction ps as [|p ps IH]; cbn; intro H; [constructor|].
  destruct p as [t|[|k]]; constructor.
  - apply H. cbn. left; reflexivity.
  - apply IH. intros t' Hin. apply H. cbn. right; exact Hin.
  - apply Q_name.
  - apply IH. intros t' Hin. apply H. cbn. exact Hin.
  - apply Q_name.
  - apply IH. intros t' Hin. apply H. cbn. exact Hin.
Qed.

Lemma Pn_child n x : Pn n -> In x (children n) -> Pn x.
Proof. intros H Hin. exact (proj1 (Forall_forall _ _) (Pn_children n H) x Hin). Qed.

Ltac pnc H := let HC := fresh "HC" in pose proof (Pn_children _ H) as HC; cbn [children opt_list app map snd] in HC.
Ltac fsplit :=
  repeat match goal with
         | H : Forall _ (_ :: _) |- _ => apply Forall_cons_iff in H; destruct H
         | H : Forall _ (_ ++ _) |- _ => apply Forall_app in H; destruct H
         end.

Section Body.
Variable w : node -> J unit.
Hypothesis Hw : forall n, Pn n -> jsp T (w n).
#[local] Hint Resolve Hw : jsp.

Lemma sp_walk_list ns : Forall Pn ns -> jsp T (jwalk_list w ns).
Proof. induction 1; cbn; jgo. Qed.

Lemma sp_block n : Pn n -> jsp (Forall Q) (jblock w n).
Proof.
  intros Hn st x st' Hc E. unfold jblock, jbind, jget in E. cbn in E.
  match type of E with context [w n ?sub] => set (sb := sub) in * end.
  destruct (w n sb) as [[u sub']| | | | |] eqn:Ew; try discriminate. inversion E; subst. clear E.
  assert (Hcs : called_ok Q sb) by exact Hc.
  destruct (Hw n Hn sb u sub' Hcs Ew) as (cs & Eo & F & C & _).
  exists []. split; [reflexivity|]. split; [constructor|]. split; [exact C|].
  rewrite Eo. cbn. rewrite app_nil_r, rev_involutive. exact F.
Qed.

Lemma sp_write_raw_text t : jsp T (write_raw_text t).
Proof. unfold write_raw_text. jgo. Qed.

Lemma sp_list_items first l : Forall Pn l -> jsp T (list_items w first l).
Proof. intro F. revert first. induction F; intro; cbn; jgo. Qed.

Lemma sp_map_items first l : Forall Pn (map snd l) -> jsp T (map_items w first l).
Proof. revert first. induction l as [|[k x] r IH]; intros first F; cbn in *; fsplit; jgo. Qed.

Lemma sp_jop sym a c : Q (CText sym) -> Pn a -> Pn c -> jsp T (jop w sym a c).
Proof. intros. unfold jop. jgo. Qed.
#[local] Hint Resolve sp_block sp_write_raw_text sp_list_items sp_map_items sp_jop : jsp.

Lemma sp_apply_pieces ps args : (forall t, In t (piece_texts ps) -> Q (CText t)) -> Forall Pn args -> jsp T (apply_pieces w ps args).
Proof.
  intros Ht Fa. induction ps as [|[t|i] ps IH]; cbn [apply_pieces]; cbn in Ht.
  - jgo.
  - jstep. apply jspec_txt. auto. auto.
  - destruct (nth_error args i) as [a|] eqn:En; [|jgo].
    apply nth_error_In in En. pose proof (proj1 (Forall_forall _ _) Fa a En). jgo.
Qed.

Lemma sp_builtin_call name args : Q (CText (t_soy_dd ++ name ++ t_lpar)) -> Forall Pn args -> jsp T (builtin_call w name args).
Proof. intros. unfold builtin_call. jgo. Qed.

(* the eight formatter strings are part of [table_texts] *)
Lemma Q_fmt sel name : In sel [fmt_template_text; fmt_call_text; fmt_directive; fmt_function] ->
  Forall Q (fmt_chunks (sel (o_fmt o)) name).
Proof.
  intro Hs. apply fmt_chunks_Q. intros t Hin. apply Q_table. unfold table_texts. rewrite !in_app_iff.
  cbn in Hs. decompose [or] Hs; try contradiction; subst sel; destruct (o_fmt o); tauto.
Qed.
#[local] Hint Extern 0 (Forall Q (fmt_chunks _ _)) => (apply Q_fmt; cbn; tauto) : jsp.
#[local] Hint Resolve jspec_note_called : jsp.

Lemma sp_visit_function name args : Forall Pn args -> jsp T (visit_function o w name args).
Proof.
  intro Fa. unfold visit_function.
  destruct (assoc_s name js_builtin_funcs) as [jn|] eqn:Eb.
  - destruct (assoc_s_in _ _ _ Eb) as (k' & Hin).
    jstep. apply sp_builtin_call; auto. apply Q_table. unfold table_texts. rewrite !in_app_iff. right. left.
    apply in_map_iff. exists (k', jn). auto. jgo.
  - destruct (assoc_s name js_funcs) as [[lens alts]|] eqn:Ef.
    + destruct (assoc_s_in _ _ _ Ef) as (k' & Hin).
      destruct (pick_alt alts (length args)) as [ps|] eqn:Ep; [|jgo].
      destruct (pick_alt_in _ _ _ Ep) as (g & Hg).
      jstep. apply sp_apply_pieces; auto. intros t Ht. apply Q_table. unfold table_texts. rewrite in_app_iff. left.
      apply in_flat_map. exists (k', (lens, alts)). split; auto. apply in_flat_map. exists (g, ps). auto. jgo.
    + destruct (bstr_eqb name jn_isFirst || bstr_eqb name jn_isLast || bstr_eqb name jn_index); jgo.
Qed.

Lemma sp_dataref_access acc expr closers : Forall Pn acc -> Forall Q expr -> Forall Q closers ->
  jsp (Forall Q) (jdataref_access w acc expr closers).
Proof.
  intro Fa. revert expr closers. induction Fa as [|a rest Ha Fa IH]; intros expr closers Fe Fc; cbn [jdataref_access].
  jgo. destruct a; auto; pnc Ha; fsplit; jgo.
Qed.
#[local] Hint Resolve sp_dataref_access : jsp.

Lemma sp_visit_dataref key acc : Forall Pn acc -> jsp T (visit_dataref w key acc).
Proof. intro Fa. unfold visit_dataref. jgo. Qed.

Definition kept_ok (k : list (bstr * list node)) : Prop := Forall (fun d => Forall Pn (snd d)) k.

Lemma sp_print_scan dirs escape kept : Forall Pn dirs -> kept_ok kept ->
  jsp (fun r => kept_ok (snd r)) (print_scan o dirs escape kept).
Proof.
  intro Fd. revert escape kept. induction Fd as [|d r Hd Fd IH]; intros escape kept Fk; cbn [print_scan]. jgo.
  destruct d; try solve [jstep]. pnc Hd. destruct (assoc_s name js_directives) as [[jn cancel]|]; [|jgo].
  assert (kept_ok ((if bstr_eqb name n_changeNewlineToBr || bstr_eqb name n_insertWordBreaks then kept ++ [(n_escapeHtml, [])] else kept)
                   ++ [(name, args)])).
  { destruct (_ || _); repeat (apply Forall_app; split); auto; repeat constructor; auto. }
  jgo.
Qed.

Lemma Q_directive_js name : Q (CText (directive_js name)).
Proof.
  unfold directive_js. destruct (assoc_s name js_directives) as [[jn c]|] eqn:Ed; [|qb].
  destruct (assoc_s_in _ _ _ Ed) as (k' & Hin). apply Q_table. unfold table_texts. rewrite !in_app_iff.
  right. right. left. apply in_map_iff. exists (k', (jn, c)). auto.
Qed.

Lemma sp_print_opens ds : jsp T (print_opens ds).
Proof. induction ds as [|[name args] r IH]; cbn. jgo. jstep. apply jspec_emit. constructor. apply Q_directive_js. solveF. exact IH. Qed.

Lemma sp_print_args args : Forall Pn args -> jsp T (print_args w args).
Proof. induction 1; cbn; jgo. Qed.
#[local] Hint Resolve sp_print_scan sp_print_opens sp_print_args : jsp.

Lemma sp_print_closes ds : kept_ok ds -> jsp T (print_closes w ds).
Proof. induction 1 as [|[name args] r]; cbn in *; jgo. Qed.
#[local] Hint Resolve sp_print_closes : jsp.

Lemma sp_visit_print arg dirs : Pn arg -> Forall Pn dirs -> jsp T (visit_print o w arg dirs).
Proof.
  intros Ha Fd. unfold visit_print. jstep. jstep. eapply jspec_bind. apply sp_print_scan; auto. constructor.
  intros [escape kept] Fk. cbn in Fk.
  assert (Fk' : kept_ok (if escape =? 2 then kept else kept ++ [(n_escapeHtml, [])])).
  { destruct (escape =? 2); auto. apply Forall_app. split; auto. constructor; auto. cbn. constructor. }
  jgo.
Qed.

Lemma sp_call_params first ps acc : Forall Pn ps -> Forall Q acc -> jsp (Forall Q) (jcall_params w first ps acc).
Proof.
  intro Fp. revert first acc. induction Fp as [|p r Hp Fp IH]; intros first acc Fa; cbn [jcall_params]. jgo.
  destruct p; auto; pnc Hp; fsplit; jgo.
Qed.
#[local] Hint Resolve sp_call_params : jsp.

Lemma sp_visit_call name alldata data params : Forall Pn (opt_list data) -> Forall Pn params -> jsp T (visit_call o w name alldata data params).
Proof. intros Fd Fp. unfold visit_call. destruct data; cbn in Fd; fsplit; jgo. Qed.

Lemma sp_if_conds first cs : Forall Pn cs -> jsp T (jif_conds w first cs).
Proof.
  intro F. revert first. induction F as [|c r Hc F IH]; intro first; cbn [jif_conds]. jgo.
  destruct c; try solve [jstep]. pnc Hc. destruct cond; cbn [opt_list] in *; fsplit; jgo.
Qed.

Lemma sp_visit_loop body ie vd item vlen vidx : Pn body -> Forall Pn (opt_list ie) -> Forall Q item ->
  jsp T (visit_loop w body ie vd item vlen vidx).
Proof. intros Hb Fi Fit. unfold visit_loop. destruct ie; cbn [opt_list] in Fi; fsplit; jgo. Qed.
#[local] Hint Resolve sp_visit_loop : jsp.

Lemma sp_visit_for_range var args body ie : Forall Pn args -> Pn body -> Forall Pn (opt_list ie) -> jsp T (visit_for_range w var args body ie).
Proof.
  intros Fa Hb Fi. unfold visit_for_range.
  destruct args as [|a1 [|a2 [|a3 [|a4 r]]]]; fsplit; jgo.
Qed.

Lemma sp_visit_foreach var lst body ie : Pn lst -> Pn body -> Forall Pn (opt_list ie) -> jsp T (visit_foreach w var lst body ie).
Proof. intros Hl Hb Fi. unfold visit_foreach. jgo. Qed.

Lemma sp_case_values vs : Forall Pn vs -> jsp T (case_values w vs).
Proof. induction 1; cbn; jgo. Qed.
#[local] Hint Resolve sp_case_values : jsp.

Lemma sp_switch_cases cs : Forall Pn cs -> jsp T (jswitch_cases w cs).
Proof.
  induction 1 as [|c r Hc F IH]; cbn [jswitch_cases]. jgo.
  destruct c; try solve [jstep]. pnc Hc. fsplit. jgo.
Qed.

Lemma sp_plural_case_body ch c : (forall l, Forall Pn l -> jsp T (ch l)) -> Pn c -> jsp T (plural_case_body ch c).
Proof. intros Hch Hc. destruct c; cbn [plural_case_body]; try solve [jstep]. pnc Hc. jgo. Qed.
#[local] Hint Resolve sp_plural_case_body : jsp.

Lemma sp_msg_children f l : Forall Pn l -> jsp T (jmsg_children w f l).
Proof.
  revert l. induction f as [|f IHf]; intros l F; cbn [jmsg_children]. jgo.
  destruct F as [|x r Hx F]. jgo.
  jstep; [|auto]. destruct x; try solve [jgo]; pnc Hx; fsplit; jgo.
  clear Hx. match goal with H : Forall Pn cases |- _ => induction H end; cbv beta iota fix; jgo.
Qed.

(* the invariant of the breadth-first queue: the children of every queued node are in Pn
   (the search queues list nodes of its own that need not be) *)
Notation Pc := (fun x => Forall Pn (children x)).
Lemma Pn_Pc l : Forall Pn l -> Forall Pc l.
Proof. intro F. eapply Forall_impl; [|exact F]. exact Pn_children. Qed.

Lemma find_placeholder_Pn f q name b : Forall Pc q -> jfind_placeholder f q name = Ok (Some b) -> Pn b.
Proof.
  revert q. induction f as [|f IH]; intros q Fq E; cbn in E. discriminate.
  destruct Fq as [|x r Hx Fr]. discriminate.
  destruct x; cbn [children] in Hx; fsplit; try (apply (IH r); auto; fail).
  - apply (IH (r ++ nodes)); auto. apply Forall_app; auto using Pn_Pc.
  - destruct (bstr_eqb name0 name). inversion E; subst. auto. apply (IH r); auto.
  - apply (IH (r ++ cases ++ [NList p default])); auto. repeat (apply Forall_app; split); auto using Pn_Pc.
  - apply (IH (r ++ [NList p body])); auto. apply Forall_app; auto.
Qed.

Lemma find_plural_Pn body var x : Forall Pn body -> jfind_plural body var = Some x -> Pn x.
Proof.
  induction body as [|y r IH]; intros F E; cbn in E. discriminate. inversion F; subst.
  destruct y; try (apply IH; auto; fail).
  destruct (bstr_eqb varname var). inversion E; subst. auto. apply IH; auto.
Qed.

Section jmpart_ind.
  Variable P : jmpart -> Prop.
  Hypothesis Hraw : forall t, P (JMRaw t).
  Hypothesis Hph : forall n, P (JMPh n).
  Hypothesis Hpl : forall v cases, Forall (Forall P) cases -> P (JMPlural v cases).
  Fixpoint jmpart_ind' (p : jmpart) : P p :=
    match p with
    | JMRaw t => Hraw t
    | JMPh n => Hph n
    | JMPlural v cases =>
        Hpl v cases
          ((fix go (cs : list (list jmpart)) : Forall (Forall P) cs :=
              match cs with
              | [] => Forall_nil _
              | c :: cr => Forall_cons c
                             ((fix go2 (ps : list jmpart) : Forall P ps :=
                                 match ps with
                                 | [] => Forall_nil _
                                 | q :: qr => Forall_cons q (jmpart_ind' q) (go2 qr)
                                 end) c) (go cr)
              end) cases)
    end.
End jmpart_ind.

Lemma sp_eval_part body p : Forall Pn body -> jsp T (jeval_part w body p).
Proof.
  intro Fb. induction p as [t|name|var cases IH] using jmpart_ind'; cbn [jeval_part].
  - jgo.
  - eapply jspec_bind. apply jspec_lift with (R := fun ph => forall b, ph = Some b -> Pn b).
    intros v E b Hb. subst. eapply find_placeholder_Pn; [|exact E]. apply Pn_Pc; auto.
    intros ph Hph. destruct ph as [b|]; jgo.
  - destruct (jfind_plural body var) as [x|] eqn:Ef; [|jgo].
    pose proof (find_plural_Pn _ _ _ Fb Ef) as Hx.
    destruct x; try solve [jgo]. pnc Hx. fsplit. jgo.
    generalize 0. induction IH as [|c cr Hc Hcr IHc]; intro i; cbv beta iota fix; jgo.
    induction Hc; cbv beta iota fix; jgo.
Qed.
#[local] Hint Resolve sp_eval_part sp_msg_children : jsp.

Lemma sp_eval_parts body ps : Forall Pn body -> jsp T (jeval_parts w body ps).
Proof. intro Fb. induction ps; cbn; jgo. Qed.

Lemma sp_visit_msg id body : Forall Pn body -> jsp T (visit_msg o w id body).
Proof. intro Fb. unfold visit_msg. pose proof sp_eval_parts. jgo. Qed.

Lemma sp_ns_decls f name i : Q (CText t_ns1) -> jsp T (ns_decls f name i).
Proof. intro Hq. revert i. induction f; intro i; cbn [ns_decls]; cbv zeta; jgo. Qed.

Lemma sp_template_head ae : jsp T (template_head ae).
Proof. unfold template_head. jgo. Qed.

Lemma sp_template_rest old all_opt name body : Pn body -> jsp T (template_rest o w old all_opt name body).
Proof. intro Hb. unfold template_rest. jgo. Qed.

Lemma sp_visit_template prev name body ae : Q (CText t_fn_params) -> Pn body -> jsp T (visit_template o w prev name body ae).
Proof. intros Hq Hb. pose proof sp_template_head. pose proof sp_template_rest. unfold visit_template, template_header_line. jgo. Qed.

Lemma sorted_items_Pn (items : list (bstr * node)) : Forall Pn (map snd items) -> Forall Pn (map snd (sort_items items)).
Proof.
  induction items as [|[k x] r IH]; cbn [sort_items map snd]; intro F. constructor. inversion F; subst.
  specialize (IH H2).
  match goal with |- Forall Pn (map snd (?ins (k, x) (sort_items r))) => set (INS := ins) end.
  induction (sort_items r) as [|[k2 y] r2 IH2]; cbn. constructor; auto.
  inversion IH; subst. destruct (bstr_leb k k2); cbn; constructor; auto.
Qed.

#[local] Hint Resolve sp_visit_function sp_visit_dataref sp_visit_print sp_visit_call sp_if_conds sp_visit_for_range sp_visit_foreach
  sp_switch_cases sp_visit_msg sp_ns_decls sp_visit_template sp_walk_list sorted_items_Pn : jsp.

Lemma sp_walk_node prev n : Pn n -> jsp T (jwalk_node o w prev n).
Proof.
  intro Hn. pnc Hn. destruct n; cbn [jwalk_node children opt_list app map snd] in *; fsplit; try solve [jgo].
  - (* NGlobal *)
    match goal with |- context [node_of_value ?p ?v] => destruct (node_of_value p v) end; cbn [opt_list] in *; fsplit; jgo.
  - (* NCss *)
    match goal with |- context [match ?e with Some _ => _ | None => _ end] => destruct e end; cbn [opt_list] in *; fsplit; jgo.
  - (* NFor *)
    match goal with |- context [match ?l with NFunc _ _ _ => _ | _ => _ end] => destruct l end; try solve [jgo].
    match goal with H : Pn (NFunc _ _ _) |- _ => pnc H end. jgo.
Qed.

Lemma sp_walk_body n : Pn n -> jsp T (jwalk_body o w n).
Proof. intro Hn. pose proof sp_walk_node. unfold jwalk_body. jgo. Qed.

End Body.

Theorem sp_walk fuel n : Pn n -> jspec Q T (jwalk o fuel n).
Proof. revert n. induction fuel as [|f IH]; intros n Hn; cbn. jgo. apply sp_walk_body; auto. Qed.

Lemma sp_visit_file fuel name body : Forall Pn body -> jspec Q T (visit_file o fuel name body).
Proof. intro Fb. pose proof (sp_walk fuel). pose proof sp_walk_list. unfold visit_file. jgo. Qed.

Lemma import_lines_Q keys called : Forall (fun kv : bstr * list chunk => Forall Q (snd kv)) called -> Forall Q (import_lines keys called).
Proof.
  intro Fc. induction keys as [|k r IH]; cbn [import_lines]. constructor.
  apply Forall_app. split.
  - destruct (assoc_s k called) as [imp|] eqn:E; [|constructor].
    destruct (assoc_s_in _ _ _ E) as (k' & Hin). exact (proj1 (Forall_forall _ _) Fc (k', imp) Hin).
  - apply Forall_app. split; auto. solveF.
Qed.

(* soyjs.Write as a whole: every chunk of the generated file is in Q *)
Theorem gen_file_Q fuel name body cs : Forall Pn body -> gen_file o fuel name body = Ok cs -> Forall Q cs.
Proof.
  intros Fb E. unfold gen_file in E.
  destruct (visit_file o fuel name body jinit_state) as [[u st]| | | | |] eqn:Ev; try discriminate.
  assert (Hc0 : called_ok Q jinit_state) by constructor.
  destruct (sp_visit_file fuel name body Fb jinit_state u st Hc0 Ev) as (cs0 & Eo & F0 & Cc & _).
  inversion E; subst. clear E. apply Forall_app. split.
  - destruct (j_called st) as [|c0 cr] eqn:Ec. constructor.
    apply Forall_app. split; [|solveF]. apply import_lines_Q. rewrite <- Ec. exact Cc.
  - rewrite Eo. cbn. rewrite app_nil_r, rev_involutive. exact F0.
Qed.

End Walk.
