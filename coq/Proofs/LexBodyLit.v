(* C15, scanner half: a {literal}s{/literal} block between two stretches of text. *)
From Soy Require Import Model.Bytes Model.Utf8 Model.Outcome Model.Token Generated.Tables Model.Lexer Spec.Text Spec.TextBody
  Proofs.Utf8Proofs Proofs.LexerPrim Proofs.LexerStates Proofs.LexTokens Proofs.LexExpr Proofs.LexBodyText Proofs.LexBodySeg Proofs.LexBodyCmd.
From Soy Require Export Proofs.BytesBase.
From Coq Require Import ZifyBool Lia.
Open Scope Z_scope.

(* strings.Index on the model is the Spec's first_close *)
Lemma index_of_first_close : forall s i, index_of literal_close1 s i = match first_close s with Some k => Some (i + Z.of_nat k) | None => None end.
Proof.
  induction s as [|c r IH]; intros i.
  - reflexivity.
  - cbn [index_of first_close]. change lit_close with literal_close1.
    destruct (is_prefix literal_close1 (c :: r)); [f_equal; lia|]. rewrite IH. destruct (first_close r); [f_equal; lia|reflexivity].
Qed.

(* the block without blanks *)
Lemma lit_name_sp_nil s : lit_name_sp [] s = lit_name s.
Proof. reflexivity. Qed.
Lemma cmd_ok_lit s : lit_closed s -> cmd_ok (lit_name s, s).
Proof. intros H. right. exists []. split; [constructor|]. split; [reflexivity|exact H]. Qed.

Section Lit.
Variable uni_letter uni_digit : Z -> bool.
Hypothesis letter_ascii : forall c, (c < 128)%N -> uni_letter (Z.of_N c) = ((65 <=? c) && (c <=? 90) || (97 <=? c) && (c <=? 122))%N.
Hypothesis digit_ascii : forall c, (c < 128)%N -> uni_digit (Z.of_N c) = digit_b c.
Hypothesis letter_eof : uni_letter (-1) = false.
Hypothesis digit_eof : uni_digit (-1) = false.
Variable inp : bstr.
Notation steps := (steps uni_letter uni_digit inp 0).
Notation span := (span inp).
Notation ilen := (Z.of_nat (length inp)).

Definition w_literal : bstr := [108; 105; 116; 101; 114; 97; 108]%N.

(* the word "literal" inside the tag: the scanner goes to lexLiteral *)
Lemma lex_word_literal l s : span l [] (w_literal ++ s) -> stops s ->
  exists l', steps 2 LInsideTag l = Ok (LLiteral, l') /\ span l' [] s /\ sent itemLiteral w_literal l l'.
Proof.
  intros Hs Hst. unfold w_literal in *. set (c0 := 108%N) in *. set (cs := [105; 116; 101; 114; 97; 108]%N) in *.
  assert (Hs' : span l [] (c0 :: cs ++ s)) by exact Hs.
  destruct (next_ascii inp l [] c0 (cs ++ s) Hs' ltac:(unfold c0; lia)) as (Hn & Hs1).
  pose proof (span_backup inp l [] c0 (cs ++ s) Hs') as Hsb.
  set (lb := backup (adv l)) in *.
  assert (H1 : step uni_letter uni_digit inp ilen 0 LInsideTag l = Ok (LIdent, lb)).
  { cbn [step]. unfold lex_inside_tag. rewrite Hn. cbn [bind]. unfold c0. eval_tests. reflexivity. }
  destruct (next_ascii inp lb [] c0 (cs ++ s) Hsb ltac:(unfold c0; lia)) as (Hn2 & Hs2).
  destruct (alnum_loop_run uni_letter uni_digit letter_ascii digit_ascii letter_eof digit_eof inp cs (adv lb) ([] ++ [c0]) s
              (loop_fuel ilen (adv lb)) Hs2 eq_refl Hst) as (l3 & Hloop & Hs3 & Ho3 & Hla3 & Hd3).
  { pose proof (span_bounds inp _ _ _ Hs2) as (Hb0 & Hl0). rewrite app_length in Hl0. unfold loop_fuel. lia. }
  cbn [app] in Hs3.
  destruct (emit_span inp 0 itemLiteral (backup l3) (c0 :: cs) s Hs3) as (He & Hs4).
  exists (emitted 0 itemLiteral (backup l3) (c0 :: cs)). split; [|split; [exact Hs4|]].
  - change 2%nat with (1 + 1)%nat. rewrite (steps_app _ _ _ _ 1 1 _ _ _ _ (steps_one _ _ _ _ _ _ _ _ H1)).
    apply steps_one. cbn [step]. unfold lex_ident. rewrite Hn2. cbn [bind]. unfold c0 at 1 2 3 4 5. eval_tests.
    rewrite Hloop. cbn [bind]. rewrite (slice_span inp (backup l3) (c0 :: cs) s Hs3). cbn [bind].
    change (assoc_s (c0 :: cs) builtin_idents) with (Some itemLiteral). cbv iota beta. rewrite He. cbn [bind]. reflexivity.
  - apply sent_emitted; unfold backup, set_pos; cbn [l_out l_last l_dd]; [rewrite Ho3|rewrite Hla3|rewrite Hd3]; reflexivity.
Qed.

Lemma span_tick l w s n : span l w s -> span (tick l n) w s.
Proof. intros H. exact H. Qed.

Lemma blanks_brace sp : Forall lit_blank sp -> exists c cs, sp ++ [125%N] = c :: cs /\ (c < 128)%N.
Proof.
  intros Hsp. destruct sp as [|b sp]; [exists 125%N, []; split; [reflexivity|lia]|]. inversion Hsp as [|? ? Hb _].
  exists b, (sp ++ [125%N]). split; [reflexivity|destruct Hb; subst; lia].
Qed.

(* `for isSpace(ch) { ch = l.next() }` over a run of spaces and tabs that ends at "}"; [c], the first byte of
   the run, is the rune in hand *)
Lemma literal_space_run : forall sp c cs w l0 rest f, sp ++ [125%N] = c :: cs -> Forall lit_blank sp ->
  span l0 (w ++ [c]) (cs ++ rest) -> (length sp < f)%nat ->
  exists l1, literal_space_loop inp ilen f (Z.of_N c) l0 = Ok (125, l1) /\ span l1 (w ++ sp ++ [125%N]) rest /\ unsent l0 l1.
Proof.
  induction sp as [|b sp IH]; intros c cs w l0 rest f E Hsp Hs Hf; (destruct f as [|f]; [inversion Hf|]);
    cbn [app] in E; injection E as <- <-; cbn [literal_space_loop].
  - exists l0. split; [reflexivity|]. split; [exact Hs|apply unsent_refl].
  - inversion Hsp as [|? ? Hb Hsp']; subst.
    replace (gen_isSpace (Z.of_N b)) with true by (destruct Hb; subst; reflexivity).
    destruct (blanks_brace sp Hsp') as (c' & cs' & E & Hc'). rewrite E in Hs.
    destruct (next_ascii inp l0 _ c' (cs' ++ rest) Hs Hc') as (Hn & Hs1). rewrite Hn. cbn [bind].
    destruct (IH c' cs' (w ++ [b]) (adv l0) rest f E Hsp' Hs1 ltac:(cbn [length] in Hf; lia)) as (l1 & Hrun & Hs2 & Hu).
    exists l1. split; [exact Hrun|]. split; [rewrite <- app_assoc in Hs2; exact Hs2|exact Hu].
Qed.

(* input[l.pos:] *)
Lemma slice_rest l w s : span l w s -> slice inp ilen (l_pos l) ilen = Ok s.
Proof.
  intros Hs. pose proof (span_cur inp _ _ _ Hs) as (Hp & Hd). pose proof (span_bounds inp _ _ _ Hs) as (Hb & Hl). unfold slice.
  destruct ((l_pos l <? 0) || (ilen <? l_pos l) || (ilen <? ilen)) eqn:E0; [exfalso; lia|].
  rewrite Hd. replace (Z.to_nat (ilen - l_pos l)) with (length s) by lia. rewrite take_whole. reflexivity.
Qed.

(* emit: the item is sent and nothing else changes; [l0] is any state with the same items as [l] *)
Lemma emit_sent t l0 l w s : span l w s -> unsent l0 l ->
  exists l', emit inp ilen 0 t l = Ok l' /\ span l' [] s /\ sent t w l0 l'.
Proof.
  intros Hs (A & B & C). destruct (emit_span inp 0 t l w s Hs) as (He & Hs'). eexists. split; [exact He|].
  split; [exact Hs'|apply sent_emitted; assumption].
Qed.

(* lexLiteral: blanks, "}" s "{/literal}" *)
Lemma lex_literal_run l sp s rest : Forall lit_blank sp -> span l [] (sp ++ [125%N] ++ s ++ literal_close1 ++ rest) -> l_dd l = false -> lit_closed s ->
  exists l' p1 p2 p3 p4 p5, steps 1 LLiteral l = Ok (LText, l') /\ span l' [] rest /\
    l_out l' = {| t_typ := itemRightDelim; t_pos := p5; t_val := [125%N] |} :: {| t_typ := itemLiteralEnd; t_pos := p4; t_val := literal_end_kw |} ::
               {| t_typ := itemLeftDelim; t_pos := p3; t_val := [123%N] |} :: {| t_typ := itemText; t_pos := p2; t_val := s |} ::
               {| t_typ := itemRightDelim; t_pos := p1; t_val := sp ++ [125%N] |} :: l_out l /\
    l_last l' = {| t_typ := itemRightDelim; t_pos := p5; t_val := [125%N] |} /\ l_dd l' = false.
Proof using letter_ascii digit_ascii letter_eof digit_eof. (* the section's hypotheses, like the lemmas around it *)
  intros Hsp Hs Hdd Hcl. rewrite app_assoc in Hs.
  (* the blanks and "}" *)
  destruct (blanks_brace sp Hsp) as (c & cs & E & Hc). rewrite E in Hs.
  destruct (next_ascii inp l [] c _ Hs Hc) as (Hn & Hs0).
  destruct (literal_space_run sp c cs [] (adv l) _ (S (loop_fuel ilen (adv l))) E Hsp Hs0) as (la & Hloop & Hs1 & Hua).
  { pose proof (span_fuel inp _ _ _ Hs0) as Hf. apply (f_equal (@length _)) in E. rewrite !app_length in *. cbn [length] in *. lia. }
  cbn [app] in Hs1. destruct Hua as (Hoa & _ & Hdda). cbn [adv l_out l_dd] in Hoa, Hdda.
  destruct (emit_sent itemRightDelim la la _ _ Hs1 (unsent_refl _)) as (l3 & He3 & Hs3 & (p1 & Ho3 & _ & Hdd3)).
  (* the rest of the input and the index of the closing tag *)
  pose proof (slice_rest l3 _ _ Hs3) as Hsl.
  assert (Hidx : index_of literal_close1 (s ++ literal_close1 ++ rest) 0 = Some (Z.of_nat (length s))).
  { rewrite index_of_first_close. change literal_close1 with lit_close. rewrite (Hcl rest). f_equal. }
  (* the four items after the index *)
  set (l4 := tick (set_pos l3 (l_pos l3 + Z.of_nat (length s))) (Z.of_nat (length s) + Z.of_nat (length literal_close1))).
  destruct (emit_sent itemText l3 l4 _ _ (span_fwd inp l3 [] s _ Hs3) (unsent_refl _)) as (l5 & He5 & Hs5 & (p2 & Ho5 & _ & Hdd5)).
  change literal_close1 with ([123%N] ++ literal_end_kw ++ [125%N]) in Hs5. rewrite <- !app_assoc in Hs5.
  destruct (emit_sent itemLeftDelim l5 _ _ _ (span_fwd inp l5 [] [123%N] _ Hs5) (unsent_refl _)) as (l6 & He6 & Hs6 & (p3 & Ho6 & _ & Hdd6)).
  change (Z.of_nat (length [123%N])) with 1 in He6.
  destruct (emit_sent itemLiteralEnd l6 _ _ _ (span_fwd inp l6 [] literal_end_kw _ Hs6) (unsent_refl _)) as (l7 & He7 & Hs7 & (p4 & Ho7 & _ & Hdd7)).
  destruct (emit_sent itemRightDelim l7 _ _ _ (span_fwd inp l7 [] [125%N] _ Hs7) (unsent_refl _)) as (l8 & He8 & Hs8 & (p5 & Ho8 & Hla8 & Hdd8)).
  change (Z.of_nat (length [125%N])) with 1 in He8.
  assert (Hdd3' : l_dd l3 = false) by congruence.
  exists l8, p1, p2, p3, p4, p5. split; [|split; [exact Hs8|]].
  - apply steps_one. cbn [step]. unfold lex_literal. rewrite Hn. cbn [bind]. rewrite Hloop. cbn [bind].
    change (negb (125 =? 125)) with false. cbv iota.
    unfold double_close. rewrite Hdda, Hdd. cbn [bind]. rewrite He3. cbn [bind]. rewrite Hdd3', Hsl. cbn [bind].
    rewrite Hidx. fold l4. rewrite He5. cbn [bind]. rewrite He6. cbn [bind]. rewrite He7. cbn [bind]. rewrite He8. reflexivity.
  - split; [|split; [exact Hla8|congruence]]. rewrite Ho8, Ho7, Ho6, Ho5, Ho3, Hoa. reflexivity.
Qed.

(* the whole block, from lexLeftDelim to the lexText after it *)
Lemma lex_literal_cmd l sp s rest : Forall lit_blank sp -> span l [] ([123%N] ++ lit_name_sp sp s ++ [125%N] ++ rest) -> lit_closed s ->
  exists k l' ld kw rd tx ld2 ke rd2, steps k LLeftDelim l = Ok (LText, l') /\ span l' [] rest /\
    l_out l' = rd2 :: ke :: ld2 :: tx :: rd :: kw :: ld :: l_out l /\
    t_typ ld = itemLeftDelim /\ t_typ kw = itemLiteral /\ t_typ rd = itemRightDelim /\ t_typ tx = itemText /\ t_val tx = s /\
    t_typ ld2 = itemLeftDelim /\ t_typ ke = itemLiteralEnd /\ t_typ rd2 = itemRightDelim /\
    l_last l' = rd2 /\ t_val rd2 = [125%N] /\ l_dd l' = false.
Proof.
  intros Hsp Hs Hcl.
  assert (E : [123%N] ++ lit_name_sp sp s ++ [125%N] ++ rest = 123%N :: 108%N :: [105; 116; 101; 114; 97; 108]%N ++ sp ++ [125%N] ++ s ++ literal_close1 ++ rest).
  { unfold lit_name_sp, lit_word, lit_close_head, literal_close1. cbn [app]. do 8 f_equal. rewrite <- !app_assoc. cbn [app]. rewrite <- !app_assoc. reflexivity. }
  rewrite E in Hs.
  destruct (delim_begin uni_letter uni_digit letter_ascii digit_ascii letter_eof digit_eof inp l 108%N _ Hs ltac:(lia) ltac:(lia) ltac:(lia)) as (l1 & p1 & Hst1 & Hs1 & Ho1 & Hla1 & Hdd1).
  change (108 =? 92)%N with false in Hst1. cbv iota in Hst1.
  assert (Hs1' : span l1 [] (w_literal ++ sp ++ [125%N] ++ s ++ literal_close1 ++ rest)) by exact Hs1.
  assert (Hstop : stops (sp ++ [125%N] ++ s ++ literal_close1 ++ rest)).
  { destruct sp as [|c sp']; [cbn; split; [lia|reflexivity]|]. inversion Hsp as [|? ? Hc _]; subst. destruct Hc; subst; cbn; split; (lia || reflexivity). }
  destruct (lex_word_literal l1 _ Hs1' Hstop) as (l2 & Hst2 & Hs2 & (p2 & Ho2 & Hla2 & Hdd2)).
  destruct (lex_literal_run l2 sp s rest Hsp Hs2 ltac:(congruence) Hcl) as (l3 & q1 & q2 & q3 & q4 & q5 & Hst3 & Hs3 & Ho3 & Hla3 & Hdd3).
  exists (2 + (2 + 1))%nat, l3. do 7 eexists. split.
  { rewrite (steps_app _ _ _ _ 2 _ _ _ _ _ Hst1), (steps_app _ _ _ _ 2 _ _ _ _ _ Hst2). exact Hst3. }
  split; [exact Hs3|]. split; [rewrite Ho3, Ho2, Ho1; reflexivity|]. cbn [t_typ t_val]. repeat split; assumption.
Qed.

End Lit.
