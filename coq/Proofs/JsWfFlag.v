(* C14, token grammar: the 'line break before' flag.  The lexers flag a token ([TNL t]) where a production of the
   subset is restricted by a line terminator (a postfix ++); the recogniser has no transition on a flagged token, so
   every token list it accepts is free of flagged tokens: a text with a line break before ++ lexes, and is refused
   by the grammar -- as ECMAScript's restricted production demands. *)
From Soy Require Import Model.Bytes Model.JsGen.
From Soy Require Import Spec.JsSyntax.
Open Scope N_scope.

Definition pat_nf (p : pat) : bool := match p with PT (TNL _) => false | _ => true end.
(* the fixed token sequences the recogniser expects contain no flagged token *)
Fixpoint mode_nf (m : mode) : Prop :=
  match m with
  | MSeq ps push next => forallb pat_nf ps = true /\ mode_nf next
  | _ => True
  end.

(* the step functions are finite case distinctions: open every match of the hypothesis *)
Ltac crack H :=
  repeat match type of H with
         | context [match ?x with _ => _ end] => destruct x; try discriminate H
         | context [if ?x then _ else _] => destruct x; try discriminate H
         end;
  inversion H; subst; clear H.

Lemma js_step_flagged md m s t : mode_nf m -> js_step md m s (TNL t) = None.
Proof.
  intro W. destruct m; cbn [js_step step_stmt step_want step_have]; try reflexivity.
  - destruct ps as [|p ps]; [reflexivity|]. cbn [mode_nf forallb] in W. destruct W as [W _].
    apply andb_prop in W. destruct W as [W _]. destruct p as [t'| |]; cbn [pat_match]; try reflexivity.
    destruct t'; cbn [tok_eqb]; try reflexivity. discriminate W.
Qed.

Lemma js_step_nf md m s t m' s' d : mode_nf m -> js_step md m s t = Some (m', s', d) -> mode_nf m'.
Proof.
  intros W. destruct m; cbn [js_step]; unfold step_stmt, step_want, step_have, cfg, seq1, m_params; intro H;
    try (crack H; cbn; auto; fail).
  cbn [mode_nf] in W. destruct W as [W Wn]. destruct ps as [|p ps]; [discriminate H|].
  cbn [forallb] in W. apply andb_prop in W. destruct W as [_ W].
  destruct (pat_match p t); [|discriminate H]. destruct ps as [|p2 ps]; inversion H; subst; [exact Wn|].
  cbn [mode_nf]. split; [exact W|exact Wn].
Qed.

Lemma js_run_unflagged md ts : forall m s r, mode_nf m -> js_run md ts m s = Some r -> existsb tok_flagged ts = false.
Proof.
  induction ts as [|t ts IH]; intros m s r W H; [reflexivity|]. cbn [js_run] in H. cbn [existsb].
  destruct (js_step md m s t) as [[[m1 s1] d1]|] eqn:E; [|discriminate H].
  destruct (js_run md ts m1 s1) as [[[m2 s2] d2]|] eqn:E2; [|discriminate H].
  rewrite (IH _ _ _ (js_step_nf _ _ _ _ _ _ _ W E) E2), orb_false_r.
  destruct t; try reflexivity. rewrite js_step_flagged in E by exact W. discriminate E.
Qed.

(* no token of an accepted token list carries the flag *)
Theorem js_parse_unflagged md ts p : js_parse md ts = Some p -> existsb tok_flagged ts = false.
Proof.
  unfold js_parse. intro H. destruct (js_run md ts (MStmt false) []) as [r|] eqn:E; [|discriminate H].
  exact (js_run_unflagged md ts (MStmt false) [] r I E).
Qed.

(* and the lexer does flag: a line break before ++ (directly, after white space, or ending a comment) *)
Example lex_flags_incr :
  lex_bytes (b "i" ++ [10] ++ b "  ++") = Some [TId (b "i"); TNL (TP PPlusPlus)]
  /\ lex_bytes (b "i // c" ++ [10] ++ b "++") = Some [TId (b "i"); TNL (TP PPlusPlus)]
  /\ lex_bytes (b "i ++" ++ [10]) = Some [TId (b "i"); TP PPlusPlus].
Proof. vm_compute. repeat split. Qed.
