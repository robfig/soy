(* C10: lemmas about Model/MsgId.v, in this order: byte-string and decimal-digit facts other files import
   (bstr_eqb, dec_of_N, split at a separator); the id is below 2^63 (id_lt_2_63); the names setPlaceholderNames
   hands out do not depend on the iteration order (names_order_independent, names_follow_official); the id is a
   function of the fingerprinted string and the meaning (id_function_of_content ff.); the braced placeholder string
   determines text, names, order and plural structure under the guard (phstring_injective ff.,
   phstring_determines_message). *)
From Coq Require Import Permutation.
From Soy Require Import Model.Bytes Model.Outcome Generated.Tables Model.MsgId Spec.Msg.
From Soy Require Export Proofs.BytesBase.
Open Scope N_scope.

Lemma bstr_eq_dec (x y : bstr) : {x = y} + {x <> y}.
Proof. apply list_eq_dec, N.eq_dec. Qed.

Lemma mem_s_In s l : mem_s s l = true <-> In s l.
Proof.
  unfold mem_s. rewrite existsb_exists. split.
  - intros [x [Hx He]]. apply bstr_eqb_eq in He; subst; exact Hx.
  - intros H; exists s; split; [exact H | apply bstr_eqb_refl].
Qed.

Lemma mem_s_not_In s l : mem_s s l = false <-> ~ In s l.
Proof.
  rewrite <- mem_s_In. destruct (mem_s s l); split; congruence.
Qed.

(* digits, least significant first *)
Fixpoint lsd (fuel : nat) (n : N) : bstr :=
  match fuel with
  | O => []
  | S f => (48 + n mod 10) :: if n / 10 =? 0 then [] else lsd f (n / 10)
  end.

Lemma dec_digits_lsd fuel n acc : dec_digits fuel n acc = rev (lsd fuel n) ++ acc.
Proof.
  revert n acc; induction fuel as [|f IH]; intros n acc; cbn [dec_digits lsd]; [reflexivity|].
  destruct (n / 10 =? 0).
  - reflexivity.
  - rewrite IH. cbn [rev]. rewrite <- app_assoc. reflexivity.
Qed.

Fixpoint lval (l : bstr) : N :=
  match l with
  | [] => 0
  | c :: r => (c - 48) + 10 * lval r
  end.

Lemma lval_lsd fuel n : n < 2 ^ N.of_nat fuel -> lval (lsd fuel n) = n.
Proof.
  revert n; induction fuel as [|f IH]; intros n Hn.
  - cbn in Hn. cbn [lsd lval]. lia.
  - cbn [lsd lval].
    rewrite Nat2N.inj_succ, N.pow_succ_r' in Hn.
    pose proof (N.div_mod' n 10) as Hdm.
    pose proof (N.mod_lt n 10 ltac:(discriminate)) as Hm.
    destruct (N.eqb_spec (n / 10) 0) as [Hz|Hnz].
    + cbn [lval]. rewrite Hz in Hdm. clear Hz Hn IH.
      generalize dependent (n mod 10). intros; lia.
    + rewrite IH.
      * clear Hnz Hn IH. generalize dependent (n / 10). generalize dependent (n mod 10). intros; lia.
      * apply N.div_lt_upper_bound; [discriminate|].
        clear Hdm Hm Hnz IH. generalize dependent (2 ^ N.of_nat f). intros; lia.
Qed.

Lemma dec_of_N_lsd n : dec_of_N n = rev (lsd (S (N.to_nat (N.log2 n))) n).
Proof. unfold dec_of_N. rewrite dec_digits_lsd, app_nil_r. reflexivity. Qed.

Lemma lt_pow2_log2 n : n < 2 ^ N.of_nat (S (N.to_nat (N.log2 n))).
Proof.
  rewrite Nat2N.inj_succ, N2Nat.id.
  destruct (N.eq_dec n 0) as [->|Hn]; [reflexivity|].
  apply N.log2_spec. lia.
Qed.

Lemma dec_of_N_inj n m : dec_of_N n = dec_of_N m -> n = m.
Proof.
  rewrite !dec_of_N_lsd. intros H.
  apply (f_equal (@rev N)) in H. rewrite !rev_involutive in H.
  apply (f_equal lval) in H.
  rewrite !lval_lsd in H by apply lt_pow2_log2. exact H.
Qed.

Definition is_digit_byte (c : N) : Prop := 48 <= c /\ c <= 57.

Lemma lsd_digits fuel n : Forall is_digit_byte (lsd fuel n).
Proof.
  revert n; induction fuel as [|f IH]; intros n; cbn [lsd]; [constructor|].
  constructor.
  - pose proof (N.mod_lt n 10 ltac:(discriminate)). unfold is_digit_byte.
    generalize dependent (n mod 10). intros; lia.
  - destruct (n / 10 =? 0); [constructor | apply IH].
Qed.

Lemma dec_of_N_digits n : Forall is_digit_byte (dec_of_N n).
Proof. rewrite dec_of_N_lsd. apply Forall_rev, lsd_digits. Qed.

Lemma dec_of_N_nonempty n : dec_of_N n <> [].
Proof.
  rewrite dec_of_N_lsd. cbn [lsd rev]. intros H. apply app_eq_nil in H. destruct H; discriminate.
Qed.

Lemma digits_not_in c l : Forall is_digit_byte l -> ~ is_digit_byte c -> ~ In c l.
Proof. intros Hl Hc Hin. rewrite Forall_forall in Hl. apply Hc, Hl, Hin. Qed.

Lemma dec_no_us n : ~ In 95 (dec_of_N n).
Proof. apply (digits_not_in 95 _ (dec_of_N_digits n)). unfold is_digit_byte; lia. Qed.

(* a separator that occurs in neither tail splits uniquely *)
Lemma split_at_last (sep : N) l1 l2 r1 r2 :
  ~ In sep r1 -> ~ In sep r2 -> l1 ++ sep :: r1 = l2 ++ sep :: r2 -> l1 = l2 /\ r1 = r2.
Proof.
  intros H1 H2. revert l2; induction l1 as [|a l1 IH]; intros [|c l2] H; cbn in H.
  - injection H as ->. auto.
  - injection H as <- ->. exfalso. apply H1. apply in_or_app. right. left. reflexivity.
  - injection H as -> <-. exfalso. apply H2. apply in_or_app. right. left. reflexivity.
  - injection H as -> H. destruct (IH _ H) as [-> ->]. auto.
Qed.

(* a separator that occurs in neither head splits uniquely *)
Lemma split_at_first (P : N -> Prop) l1 l2 c1 c2 r1 r2 :
  Forall (fun x => ~ P x) l1 -> Forall (fun x => ~ P x) l2 -> P c1 -> P c2 ->
  l1 ++ c1 :: r1 = l2 ++ c2 :: r2 -> l1 = l2 /\ c1 = c2 /\ r1 = r2.
Proof.
  intros H1 H2 Hc1 Hc2. revert l2 H2; induction l1 as [|a l1 IH]; intros [|c l2] H2 H; cbn in H.
  - injection H as -> ->. auto.
  - injection H as -> _. inversion H2; subst. contradiction.
  - injection H as -> _. inversion H1; subst. contradiction.
  - injection H as -> H.
    pose proof (Forall_inv_tail H1) as T1. pose proof (Forall_inv_tail H2) as T2.
    destruct (IH T1 _ T2 H) as (-> & -> & ->). auto.
Qed.

Lemma sfx_name_inj b1 n1 b2 n2 : sfx_name b1 n1 = sfx_name b2 n2 -> b1 = b2 /\ n1 = n2.
Proof.
  unfold sfx_name. intros H.
  apply split_at_last in H; [|apply dec_no_us|apply dec_no_us].
  destruct H as [-> H]. split; [reflexivity | apply dec_of_N_inj, H].
Qed.

Lemma sfx_name_suffixed b n : sfx_name b n = suffixed b n.
Proof. reflexivity. Qed.

(* re-checked whenever the mask in calcID changes *)
Lemma calc_id_mask_ones : calc_id_mask = N.ones 63.
Proof. vm_compute. reflexivity. Qed.

Theorem id_lt_2_63 fpstr meaning : calc_id fpstr meaning < 9223372036854775808.
Proof.
  change 9223372036854775808 with (2 ^ 63).
  unfold calc_id. cbv zeta. rewrite calc_id_mask_ones, N.land_ones.
  apply N.mod_lt. discriminate.
Qed.

Lemma NoDup_app_intro {A} (l1 l2 : list A) :
  NoDup l1 -> NoDup l2 -> (forall x, In x l1 -> ~ In x l2) -> NoDup (l1 ++ l2).
Proof.
  induction l1 as [|a l1 IH]; intros H1 H2 Hd; cbn; [exact H2|].
  inversion H1; subst. constructor.
  - intros Hin. apply in_app_or in Hin. destruct Hin as [Hin|Hin]; [contradiction|].
    apply (Hd a); [left; reflexivity | exact Hin].
  - apply IH; [assumption | assumption | intros x Hx; apply Hd; right; exact Hx].
Qed.

Lemma NoDup_flat_map {A B} (f : A -> list B) (l : list A) :
  NoDup l -> (forall x, In x l -> NoDup (f x)) ->
  (forall x y z, In x l -> In y l -> x <> y -> In z (f x) -> ~ In z (f y)) ->
  NoDup (flat_map f l).
Proof.
  induction l as [|a l IH]; intros Hl Hf Hd; cbn [flat_map]; [constructor|].
  inversion Hl; subst.
  apply NoDup_app_intro.
  - apply Hf; left; reflexivity.
  - apply IH; [assumption | intros x Hx; apply Hf; right; exact Hx |].
    intros x y z Hx Hy; apply Hd; right; assumption.
  - intros z Hz Hin. apply in_flat_map in Hin. destruct Hin as [y [Hy Hzy]].
    apply (Hd a y z); [left; reflexivity | right; exact Hy | | exact Hz | exact Hzy].
    intros ->. contradiction.
Qed.

Lemma map_flat_map {A B C} (g : B -> C) (f : A -> list B) (l : list A) :
  map g (flat_map f l) = flat_map (fun x => map g (f x)) l.
Proof. induction l as [|a l IH]; cbn; [reflexivity|]. rewrite map_app, IH. reflexivity. Qed.

Definition upd_strs (o : option (list bstr)) (s : bstr) : list bstr :=
  match o with
  | Some strs => if mem_s s strs then strs else strs ++ [s]
  | None => [s]
  end.

Lemma assoc_s_add_rep tbl b b' s :
  assoc_s b (add_rep tbl b' s) = if bstr_eqb b b' then Some (upd_strs (assoc_s b tbl) s) else assoc_s b tbl.
Proof.
  induction tbl as [|[k strs] r IH]; cbn [add_rep assoc_s].
  - destruct (bstr_eqb b b'); reflexivity.
  - destruct (bstr_eqb b' k) eqn:E1.
    + apply bstr_eqb_eq in E1; subst k. cbn [assoc_s].
      destruct (bstr_eqb b b') eqn:E2; reflexivity.
    + cbn [assoc_s]. destruct (bstr_eqb b k) eqn:E3.
      * apply bstr_eqb_eq in E3; subst k.
        rewrite bstr_eqb_sym, E1. reflexivity.
      * exact IH.
Qed.

Lemma keys_add_rep tbl b s :
  map fst (add_rep tbl b s) = if mem_s b (map fst tbl) then map fst tbl else map fst tbl ++ [b].
Proof.
  induction tbl as [|[k strs] r IH]; cbn [add_rep map fst mem_s existsb]; [reflexivity|].
  destruct (bstr_eqb b k) eqn:E; cbn [orb map fst]; [reflexivity|].
  rewrite IH. fold (mem_s b (map fst r)). destruct (mem_s b (map fst r)); reflexivity.
Qed.

Definition tbl_step (t : list (bstr * list bstr)) (e : bstr * bstr) := add_rep t (fst e) (snd e).

Lemma rep_table_fold es : rep_table es = fold_left tbl_step es [].
Proof. reflexivity. Qed.

Lemma keys_fold_NoDup es tbl : NoDup (map fst tbl) -> NoDup (map fst (fold_left tbl_step es tbl)).
Proof.
  revert tbl; induction es as [|e es IH]; intros tbl H; cbn [fold_left]; [exact H|].
  apply IH. unfold tbl_step. rewrite keys_add_rep.
  destruct (mem_s (fst e) (map fst tbl)) eqn:E; [exact H|].
  apply NoDup_app_intro; [exact H | constructor; [intros []|constructor] |].
  intros x Hx [<-|[]]. apply mem_s_not_In in E. contradiction.
Qed.

Lemma keys_fold_In es tbl x :
  In x (map fst (fold_left tbl_step es tbl)) <-> In x (map fst tbl) \/ In x (map fst es).
Proof.
  revert tbl; induction es as [|e es IH]; intros tbl; cbn [fold_left map]; [cbn; tauto|].
  rewrite IH. unfold tbl_step. rewrite keys_add_rep.
  destruct (mem_s (fst e) (map fst tbl)) eqn:E.
  - apply mem_s_In in E. cbn [In]. split; [tauto|]. intros [H|[<-|H]]; tauto.
  - rewrite in_app_iff. cbn [In]. tauto.
Qed.

Lemma rep_table_keys_NoDup es : NoDup (map fst (rep_table es)).
Proof. rewrite rep_table_fold. apply keys_fold_NoDup. constructor. Qed.

Lemma rep_table_keys_In es x : In x (map fst (rep_table es)) <-> In x (map fst es).
Proof. rewrite rep_table_fold, keys_fold_In. cbn. tauto. Qed.

Definition sel (b : bstr) (es : list (bstr * bstr)) : list bstr :=
  map snd (filter (fun e => bstr_eqb (fst e) b) es).

Lemma assoc_fold b es tbl :
  assoc_s b (fold_left tbl_step es tbl) =
  match assoc_s b tbl with
  | Some strs => Some (dedup_from strs (sel b es))
  | None => match sel b es with [] => None | _ => Some (dedup_from [] (sel b es)) end
  end.
Proof.
  revert tbl; induction es as [|[b' s'] es IH]; intros tbl; cbn [fold_left].
  - cbn. destruct (assoc_s b tbl); reflexivity.
  - rewrite IH. unfold tbl_step. cbn [fst snd]. rewrite assoc_s_add_rep.
    unfold sel. cbn [filter fst]. rewrite (bstr_eqb_sym b' b).
    destruct (bstr_eqb b b') eqn:E; [|reflexivity].
    cbn [map snd dedup_from]. unfold upd_strs, mem_s.
    destruct (assoc_s b tbl) as [strs|]; reflexivity.
Qed.

Lemma rep_table_assoc b es :
  assoc_s b (rep_table es) = match variants es b with [] => None | v => Some v end.
Proof.
  rewrite rep_table_fold, assoc_fold. cbn [assoc_s]. unfold variants. fold (sel b es).
  destruct (sel b es) as [|s r] eqn:E; [reflexivity|].
  destruct (dedup_from [] (s :: r)) eqn:E2; [|reflexivity].
  exfalso. cbn [dedup_from existsb app] in E2.
  assert (forall l seen, seen <> [] -> dedup_from seen l <> []) as Hne.
  { induction l as [|x l IHl]; intros seen Hs; cbn [dedup_from]; [exact Hs|].
    apply IHl. destruct (existsb (bstr_eqb x) seen); [exact Hs|]. destruct seen; discriminate. }
  apply (Hne r [s]); [discriminate | exact E2].
Qed.

Lemma dedup_from_NoDup l seen : NoDup seen -> NoDup (dedup_from seen l).
Proof.
  revert seen; induction l as [|x l IH]; intros seen H; cbn [dedup_from]; [exact H|].
  apply IH. destruct (existsb (bstr_eqb x) seen) eqn:E; [exact H|].
  apply NoDup_app_intro; [exact H | constructor; [intros []|constructor] |].
  intros y Hy [<-|[]]. fold (mem_s x seen) in E. apply mem_s_not_In in E. contradiction.
Qed.

Lemma variants_NoDup es b : NoDup (variants es b).
Proof. apply dedup_from_NoDup. constructor. Qed.

Lemma NoDup_fst_functional {A B} (l : list (A * B)) k v v' :
  NoDup (map fst l) -> In (k, v) l -> In (k, v') l -> v = v'.
Proof.
  induction l as [|[k0 v0] l IH]; cbn [map fst In]; [tauto|]. intros Hnd H1 H2.
  inversion Hnd as [|x y Hnotin Hnd']; subst.
  destruct H1 as [E1|H1], H2 as [E2|H2].
  - congruence.
  - injection E1 as -> ->. exfalso. apply Hnotin. apply (in_map fst) in H2. exact H2.
  - injection E2 as -> ->. exfalso. apply Hnotin. apply (in_map fst) in H1. exact H1.
  - eapply IH; eassumption.
Qed.

Lemma assoc_s_In_keys {A} k (l : list (bstr * A)) : In k (map fst l) -> exists v, assoc_s k l = Some v.
Proof.
  induction l as [|[k' v'] r IH]; cbn [map fst In assoc_s]; [intros []|].
  intros [->|H].
  - rewrite bstr_eqb_refl. eauto.
  - destruct (bstr_eqb k k'); [eauto | apply IH, H].
Qed.

(* the numbers below n that satisfy f, counted *)
Definition count_below (f : N -> bool) (n : N) : nat := length (filter f (below n)).

Lemma below_succ n : 1 <= n -> below (n + 1) = below n ++ [n].
Proof.
  intros Hn. unfold below.
  replace (N.to_nat (n + 1) - 1)%nat with (S (N.to_nat n - 1)) by lia.
  rewrite seq_S, map_app. cbn [map]. f_equal. f_equal. lia.
Qed.

Lemma count_below_succ f n : 1 <= n ->
  count_below f (n + 1) = (count_below f n + if f n then 1 else 0)%nat.
Proof.
  intros Hn. unfold count_below. rewrite (below_succ n Hn), filter_app, app_length. cbn [filter].
  destruct (f n); reflexivity.
Qed.

Lemma count_below_le f n (d : nat) : 1 <= n -> (count_below f n <= count_below f (n + N.of_nat d))%nat.
Proof.
  intros Hn. induction d as [|d IH]; [rewrite N.add_0_r; lia|].
  replace (n + N.of_nat (S d)) with ((n + N.of_nat d) + 1) by lia. rewrite count_below_succ by lia. lia.
Qed.

Lemma count_below_skip f n : 1 <= n -> forall (d : nat) k, k = n + N.of_nat d ->
  (forall i, n <= i -> i < k -> f i = false) -> count_below f k = count_below f n.
Proof.
  intros Hn. induction d as [|d IH]; intros k -> Hsk.
  - f_equal. lia.
  - replace (n + N.of_nat (S d)) with ((n + N.of_nat d) + 1) by lia.
    rewrite count_below_succ by lia. rewrite (Hsk (n + N.of_nat d)) by lia.
    rewrite (IH (n + N.of_nat d)); [lia | reflexivity |]. intros i H1 H2. apply Hsk; lia.
Qed.

Section OneBase.
  Variable bases : list bstr.
  Variable base : bstr.

  Definition avail (n : N) : bool := negb (mem_s (sfx_name base n) bases).

  Lemma next_free_total_gen fuel : forall bases' n,
    (forall k, n <= k -> In (sfx_name base k) bases -> In (sfx_name base k) bases') ->
    (length bases' < fuel)%nat -> exists k, next_free fuel bases base n = Ok k.
  Proof.
    induction fuel as [|f IH]; intros bases' n Hsub Hlen; [inversion Hlen|].
    cbn [next_free]. destruct (mem_s (sfx_name base n) bases) eqn:E; [|eauto].
    apply mem_s_In in E.
    assert (In (sfx_name base n) bases') as Hin by (apply Hsub; [lia | exact E]).
    apply (IH (remove bstr_eq_dec (sfx_name base n) bases')).
    - intros k Hk Hkin. apply in_in_remove.
      + intros Heq. apply sfx_name_inj in Heq. destruct Heq as [_ Heq]. lia.
      + apply Hsub; [lia | exact Hkin].
    - pose proof (remove_length_lt bstr_eq_dec bases' (sfx_name base n) Hin). lia.
  Qed.

  (* the stated budget suffices: the loop always finds a name *)
  Lemma next_free_total n : exists k, next_free (S (length bases)) bases base n = Ok k.
  Proof. apply (next_free_total_gen _ bases); [auto | lia]. Qed.

  Lemma next_free_spec fuel : forall n k, next_free fuel bases base n = Ok k ->
    n <= k /\ avail k = true /\ forall i, n <= i -> i < k -> avail i = false.
  Proof.
    induction fuel as [|f IH]; intros n k; cbn [next_free]; [discriminate|].
    destruct (mem_s (sfx_name base n) bases) eqn:E.
    - intros H. apply IH in H. destruct H as (H1 & H2 & H3). repeat split; [lia | exact H2 |].
      intros i Hi Hik. destruct (N.eq_dec i n) as [->|Hne].
      + unfold avail. rewrite E. reflexivity.
      + apply H3; lia.
    - intros [= <-]. repeat split; [lia | unfold avail; rewrite E; reflexivity | intros; lia].
  Qed.

  (* what number_nodes hands out: consecutive available numbers *)
  Fixpoint numbered (n : N) (strs : list bstr) (ws : namemap) : Prop :=
    match strs, ws with
    | [], [] => True
    | s :: r, (name, node) :: ws' =>
        exists k, n <= k /\ (forall i, n <= i -> i < k -> avail i = false) /\ avail k = true /\
                  name = sfx_name base k /\ node = (base, s) /\ numbered (k + 1) r ws'
    | _, _ => False
    end.

  Lemma number_nodes_total strs : forall n, exists ws, number_nodes bases base strs n = Ok ws.
  Proof.
    induction strs as [|s r IH]; intros n; cbn [number_nodes]; [eauto|].
    destruct (next_free_total n) as [k ->]. cbn [bind].
    destruct (IH (k + 1)) as [ws ->]. cbn [bind]. eauto.
  Qed.

  Lemma number_nodes_spec strs : forall n ws, number_nodes bases base strs n = Ok ws -> numbered n strs ws.
  Proof.
    induction strs as [|s r IH]; intros n ws; cbn [number_nodes].
    - intros [= <-]. exact I.
    - destruct (next_free (S (length bases)) bases base n) as [k| | | | |] eqn:E; cbn [bind]; try discriminate.
      destruct (number_nodes bases base r (k + 1)) as [rest| | | | |] eqn:E2; cbn [bind]; try discriminate.
      intros [= <-]. cbn [numbered]. exists k.
      apply next_free_spec in E. destruct E as (H1 & H2 & H3).
      repeat split; try assumption; try reflexivity. apply IH, E2.
  Qed.

  Lemma numbered_nodes n strs ws : numbered n strs ws -> map snd ws = map (pair base) strs.
  Proof.
    revert n ws; induction strs as [|s r IH]; intros n [|[name node] ws]; cbn [numbered]; try tauto.
    intros (k & _ & _ & _ & _ & -> & H). cbn [map snd]. f_equal. eapply IH, H.
  Qed.

  Lemma numbered_names n strs ws : numbered n strs ws ->
    Forall (fun name => exists k, n <= k /\ avail k = true /\ name = sfx_name base k) (map fst ws).
  Proof.
    revert n ws; induction strs as [|s r IH]; intros n [|[name node] ws]; cbn [numbered]; try tauto.
    - intros _. constructor.
    - intros (k & Hk & _ & Ha & -> & _ & H). cbn [map fst]. constructor; [eauto|].
      apply IH in H. eapply Forall_impl; [|exact H].
      cbn. intros a (k' & Hk' & Ha' & ->). exists k'. repeat split; [lia | assumption].
  Qed.

  Lemma numbered_names_NoDup n strs ws : numbered n strs ws -> NoDup (map fst ws).
  Proof.
    revert n ws; induction strs as [|s r IH]; intros n [|[name node] ws]; cbn [numbered]; try tauto.
    - intros _. constructor.
    - intros (k & Hk & _ & Ha & -> & _ & H). cbn [map fst]. constructor; [|eapply IH, H].
      intros Hin. apply numbered_names in H. rewrite Forall_forall in H.
      destruct (H _ Hin) as (k' & Hk' & _ & Heq). apply sfx_name_inj in Heq. lia.
  Qed.

  (* the j-th node gets the (c+j)-th available number when c numbers below n are available *)
  Lemma numbered_nth n strs ws : numbered n strs ws -> 1 <= n ->
    forall j s, nth_error strs j = Some s ->
    exists k, In (sfx_name base k, (base, s)) ws /\ 1 <= k /\ avail k = true /\
              count_below avail k = (count_below avail n + j)%nat.
  Proof.
    revert n ws; induction strs as [|s0 r IH]; intros n [|[name node] ws]; cbn [numbered]; try tauto.
    - intros _ _ [|j] s; discriminate.
    - intros (k & Hk & Hskip & Ha & -> & -> & H) Hn [|j] s; cbn [nth_error].
      + intros [= <-]. exists k. repeat split; [left; reflexivity | lia | exact Ha |].
        rewrite (count_below_skip avail n Hn (N.to_nat (k - n)) k); [lia | lia | exact Hskip].
      + intros Hj. destruct (IH _ _ H ltac:(lia) j s Hj) as (k' & Hin & Hk' & Ha' & Hc).
        exists k'. repeat split; [right; exact Hin | exact Hk' | exact Ha' |].
        rewrite Hc, count_below_succ by lia. rewrite Ha.
        rewrite (count_below_skip avail n Hn (N.to_nat (k - n)) k); [lia | lia | exact Hskip].
  Qed.

  Lemma assign_base_total strs : exists ws, assign_base bases base strs = Ok ws.
  Proof.
    unfold assign_base. destruct strs as [|s [|s' r]]; eauto using number_nodes_total.
  Qed.
End OneBase.

Lemma nm_put_fresh nm name node : ~ In name (map fst nm) -> nm_put nm name node = nm ++ [(name, node)].
Proof.
  induction nm as [|[n' v] r IH]; cbn [nm_put map fst In app]; intros H; [reflexivity|].
  destruct (bstr_eqb name n') eqn:E.
  - apply bstr_eqb_eq in E. subst. exfalso; apply H; left; reflexivity.
  - rewrite IH; [reflexivity | intros Hin; apply H; right; exact Hin].
Qed.

Lemma nm_put_all_fresh ws : forall nm, NoDup (map fst (nm ++ ws)) -> nm_put_all nm ws = nm ++ ws.
Proof.
  induction ws as [|[name node] ws IH]; intros nm H; unfold nm_put_all; cbn [fold_left].
  - rewrite app_nil_r. reflexivity.
  - cbn [fst snd]. rewrite nm_put_fresh.
    + fold (nm_put_all (nm ++ [(name, node)]) ws). rewrite IH; rewrite <- app_assoc; [reflexivity | exact H].
    + rewrite map_app in H. cbn [map fst] in H. apply NoDup_remove_2 in H.
      intros Hin. apply H. apply in_or_app. left. exact Hin.
Qed.

Lemma nm_put_all_app nm ws ws' : nm_put_all (nm_put_all nm ws) ws' = nm_put_all nm (ws ++ ws').
Proof. unfold nm_put_all. rewrite fold_left_app. reflexivity. Qed.

Lemma node_eq_dec (x y : bstr * bstr) : {x = y} + {x <> y}.
Proof. decide equality; apply bstr_eq_dec. Qed.

Lemma name_of_In nm name b s : NoDup (map snd nm) -> In (name, (b, s)) nm -> name_of nm b s = name.
Proof.
  induction nm as [|[n0 [b0 s0]] r IH]; cbn [name_of map snd In]; intros Hnd Hin; [contradiction|].
  inversion Hnd as [|x l Hnotin Hnd']; subst.
  destruct (bstr_eqb b b0 && bstr_eqb s s0) eqn:E.
  - apply andb_true_iff in E. destruct E as [E1 E2]. apply bstr_eqb_eq in E1, E2. subst.
    destruct Hin as [[= ->]|Hin]; [reflexivity|].
    exfalso. apply Hnotin. apply (in_map snd) in Hin. exact Hin.
  - destruct Hin as [[= -> -> ->]|Hin].
    + rewrite !bstr_eqb_refl in E. discriminate.
    + apply IH; assumption.
Qed.

Lemma name_of_notin nm b s : ~ In (b, s) (map snd nm) -> name_of nm b s = [].
Proof.
  induction nm as [|[n0 [b0 s0]] r IH]; cbn [name_of map snd In]; intros H; [reflexivity|].
  destruct (bstr_eqb b b0 && bstr_eqb s s0) eqn:E.
  - apply andb_true_iff in E. destruct E as [E1 E2]. apply bstr_eqb_eq in E1, E2. subst.
    exfalso. apply H. left. reflexivity.
  - apply IH. intros Hin. apply H. right. exact Hin.
Qed.

Lemma name_of_perm nm nm' b s : NoDup (map snd nm) -> Permutation nm nm' -> name_of nm b s = name_of nm' b s.
Proof.
  intros Hnd Hp.
  assert (NoDup (map snd nm')) as Hnd' by (eapply Permutation_NoDup; [apply Permutation_map, Hp | exact Hnd]).
  destruct (in_dec node_eq_dec (b, s) (map snd nm)) as [Hin|Hnin].
  - apply in_map_iff in Hin. destruct Hin as [[name node] [Heq Hin]]. cbn in Heq. subst node.
    rewrite (name_of_In nm name b s Hnd Hin).
    symmetry. apply name_of_In; [exact Hnd' | eapply Permutation_in; eassumption].
  - rewrite (name_of_notin nm b s Hnin). symmetry. apply name_of_notin.
    intros Hin. apply Hnin. eapply Permutation_in; [apply Permutation_map, Permutation_sym, Hp | exact Hin].
Qed.

Section Step2.
  Variable tbl : list (bstr * list bstr).
  Hypothesis keys_NoDup : NoDup (map fst tbl).
  Hypothesis strs_NoDup : forall b strs, In (b, strs) tbl -> NoDup strs.
  Let bases := map fst tbl.

  (* the map writes of one iteration of the outer loop *)
  Definition writes (k : bstr) : namemap :=
    match assoc_s k tbl with
    | None => []
    | Some strs => match assign_base bases k strs with Ok ws => ws | _ => [] end
    end.

  Lemma step2_loop_eq keys : forall nm,
    step2_loop tbl bases keys nm = Ok (nm_put_all nm (flat_map writes keys)).
  Proof.
    induction keys as [|k r IH]; intros nm; cbn [step2_loop flat_map]; [reflexivity|].
    unfold writes at 1. destruct (assoc_s k tbl) as [strs|]; [|apply IH].
    destruct (assign_base_total bases k strs) as [ws Hws]. rewrite Hws. cbn [bind].
    rewrite IH, nm_put_all_app. reflexivity.
  Qed.

  (* one iteration writes nothing for an unknown base name, the base name itself for a lone node, and
     consecutive available numbers otherwise *)
  Lemma writes_cases k :
    match assoc_s k tbl with
    | None => writes k = []
    | Some [s] => writes k = [(k, (k, s))]
    | Some strs => numbered bases k 1 strs (writes k)
    end.
  Proof.
    unfold writes. destruct (assoc_s k tbl) as [strs|]; [|reflexivity].
    destruct (assign_base_total bases k strs) as [ws Hws]. rewrite Hws. unfold assign_base in Hws.
    destruct strs as [|s [|s' r]]; [| injection Hws as <-; reflexivity |]; apply number_nodes_spec, Hws.
  Qed.

  Lemma writes_nodes k strs : assoc_s k tbl = Some strs -> map snd (writes k) = map (pair k) strs.
  Proof.
    intros Hs. pose proof (writes_cases k) as H. rewrite Hs in H.
    destruct strs as [|s [|s' r]]; [| rewrite H; reflexivity |]; eapply numbered_nodes, H.
  Qed.

  Lemma writes_names k name : In name (map fst (writes k)) ->
    (name = k /\ In k bases) \/ (exists n, avail bases k n = true /\ name = sfx_name k n).
  Proof.
    pose proof (writes_cases k) as H. destruct (assoc_s k tbl) as [[|s [|s' r]]|] eqn:Hs.
    2: { rewrite H. intros [<-|[]]. left. split; [reflexivity|]. apply assoc_s_In in Hs. exact (in_map fst _ _ Hs). }
    3: rewrite H; intros [].
    all: apply numbered_names in H; rewrite Forall_forall in H; intros Hin;
      destruct (H _ Hin) as (n & _ & Ha & ->); right; eauto.
  Qed.

  Lemma writes_names_NoDup k : NoDup (map fst (writes k)).
  Proof.
    pose proof (writes_cases k) as H. destruct (assoc_s k tbl) as [[|s [|s' r]]|].
    2, 4: rewrite H; repeat constructor; intros [].
    all: eapply numbered_names_NoDup, H.
  Qed.

  (* no name is handed out twice, whatever the order *)
  Lemma all_names_NoDup keys : NoDup keys -> NoDup (map fst (flat_map writes keys)).
  Proof.
    intros Hk. rewrite map_flat_map. apply NoDup_flat_map; [exact Hk | intros; apply writes_names_NoDup |].
    intros x y z _ _ Hxy Hzx Hzy.
    apply writes_names in Hzx, Hzy.
    destruct Hzx as [[-> Hx]|(n & Hn & ->)], Hzy as [[Heq Hy]|(m & Hm & Heq)].
    - congruence.
    - unfold avail in Hm. rewrite Heq in Hx. apply mem_s_In in Hx. rewrite Hx in Hm. discriminate.
    - unfold avail in Hn. subst y. apply mem_s_In in Hy. rewrite Hy in Hn. discriminate.
    - apply sfx_name_inj in Heq. destruct Heq; congruence.
  Qed.

  Lemma all_nodes_NoDup keys : NoDup keys -> NoDup (map snd (flat_map writes keys)).
  Proof.
    intros Hk. rewrite map_flat_map. apply NoDup_flat_map; [exact Hk | |].
    - intros x _. destruct (assoc_s x tbl) as [strs|] eqn:Hs.
      + rewrite (writes_nodes x strs Hs). apply FinFun.Injective_map_NoDup.
        * intros a c [= ->]. reflexivity.
        * apply (strs_NoDup x). apply assoc_s_In, Hs.
      + unfold writes. rewrite Hs. constructor.
    - intros x y z _ _ Hxy Hzx Hzy.
      assert (forall k, In z (map snd (writes k)) -> fst z = k) as Hfst.
      { intros k Hin. destruct (assoc_s k tbl) as [strs|] eqn:Hs.
        - rewrite (writes_nodes k strs Hs) in Hin. apply in_map_iff in Hin. destruct Hin as [s [<- _]]. reflexivity.
        - unfold writes in Hin. rewrite Hs in Hin. destruct Hin. }
      apply Hfst in Hzx, Hzy. congruence.
  Qed.

  (* the name map after step 2 is the plain list of all writes *)
  Lemma step2_eq (order : list bstr -> list bstr) : NoDup (order bases) ->
    step2 order tbl = Ok (flat_map writes (order bases)).
  Proof.
    intros Hk. unfold step2. fold bases. rewrite step2_loop_eq.
    rewrite nm_put_all_fresh; [reflexivity | apply all_names_NoDup, Hk].
  Qed.
End Step2.

Definition is_perm (order : list bstr -> list bstr) : Prop := forall l, Permutation (order l) l.

Lemma is_perm_id : is_perm (fun l => l).
Proof. intros l. apply Permutation_refl. Qed.

Lemma is_perm_rev : is_perm (@rev bstr).
Proof. intros l. apply Permutation_sym, Permutation_rev. Qed.

Lemma rep_table_strs_NoDup es b strs : In (b, strs) (rep_table es) -> NoDup strs.
Proof.
  intros Hin. destruct (assoc_s_In_keys b _ (in_map fst _ _ Hin)) as [v Ha].
  rewrite (NoDup_fst_functional _ _ _ _ (rep_table_keys_NoDup es) Hin (assoc_s_In _ _ _ Ha)).
  rewrite rep_table_assoc in Ha. destruct (variants es b) eqn:E; [discriminate|].
  injection Ha as <-. rewrite <- E. apply variants_NoDup.
Qed.

Lemma order_keys_NoDup order es : is_perm order -> NoDup (order (map fst (rep_table es))).
Proof. intros Hp. eapply Permutation_NoDup; [apply Permutation_sym, Hp | apply rep_table_keys_NoDup]. Qed.

Lemma rep_table_assoc_In es b s : In s (variants es b) -> assoc_s b (rep_table es) = Some (variants es b).
Proof. intros H. rewrite rep_table_assoc. destruct (variants es b); [destruct H | reflexivity]. Qed.

Lemma order_keys_In order es b v : is_perm order -> assoc_s b (rep_table es) = Some v -> In b (order (map fst (rep_table es))).
Proof. intros Hp Ha. eapply Permutation_in; [apply Permutation_sym, Hp|]. exact (in_map fst _ _ (assoc_s_In _ _ _ Ha)). Qed.

Lemma step2_rep_table order es : is_perm order ->
  step2 order (rep_table es) = Ok (flat_map (writes (rep_table es)) (order (map fst (rep_table es)))).
Proof. intros Hp. apply step2_eq, order_keys_NoDup, Hp. Qed.

Section MpartInd.
  Variable P : mpart -> Prop.
  Hypothesis Htext : forall t, P (MText t).
  Hypothesis Hph : forall b s, P (MPh b s).
  Hypothesis Hpl : forall b s cases d,
    Forall (fun c => Forall P (snd c)) cases -> Forall P d -> P (MPlural b s cases d).
  Fixpoint mpart_ind' (p : mpart) : P p :=
    match p with
    | MText t => Htext t
    | MPh b s => Hph b s
    | MPlural b s cases d =>
        Hpl b s cases d
          ((fix go (l : list (Z * list mpart)) : Forall (fun c => Forall P (snd c)) l :=
              match l with
              | [] => Forall_nil _
              | c :: r =>
                  Forall_cons c
                    ((fix go2 (l2 : list mpart) : Forall P l2 :=
                        match l2 with [] => Forall_nil _ | x :: r2 => Forall_cons x (mpart_ind' x) (go2 r2) end) (snd c))
                    (go r)
              end) cases)
          ((fix go2 (l2 : list mpart) : Forall P l2 :=
              match l2 with [] => Forall_nil _ | x :: r2 => Forall_cons x (mpart_ind' x) (go2 r2) end) d)
    end.
End MpartInd.

Lemma map_ext_Forall {A B} (f g : A -> B) l : Forall (fun x => f x = g x) l -> map f l = map g l.
Proof. induction 1; cbn; congruence. Qed.

Lemma set_names_ext nm nm' : (forall b s, name_of nm b s = name_of nm' b s) ->
  forall p, set_names nm p = set_names nm' p.
Proof.
  intros H. induction p as [t|b s|b s cases d IHc IHd] using mpart_ind'; cbn [set_names]; [reflexivity | rewrite H; reflexivity |].
  rewrite H. f_equal.
  - apply map_ext_Forall. eapply Forall_impl; [|exact IHc]. cbn. intros c Hc.
    f_equal. apply map_ext_Forall, Hc.
  - apply map_ext_Forall, IHd.
Qed.

Theorem names_order_independent order order' body :
  is_perm order -> is_perm order' -> msg_named order body = msg_named order' body.
Proof.
  intros Hp Hp'. unfold msg_named, msg_names.
  destruct (msg_entries body) as [es| | | | |]; cbn [bind]; try reflexivity.
  rewrite (step2_rep_table order es Hp), (step2_rep_table order' es Hp'). cbn [bind]. f_equal.
  apply map_ext. apply set_names_ext. intros b s.
  apply name_of_perm.
  - apply all_nodes_NoDup; [apply rep_table_strs_NoDup | apply order_keys_NoDup, Hp].
  - apply Permutation_flat_map. eapply Permutation_trans; [apply Hp | apply Permutation_sym, Hp'].
Qed.

Corollary id_order_independent order order' m :
  is_perm order -> is_perm order' -> msg_id order m = msg_id order' m.
Proof. intros H H'. unfold msg_id. rewrite (names_order_independent order order' _ H H'). reflexivity. Qed.

Lemma mem_s_ext x l l' : (forall y, In y l <-> In y l') -> mem_s x l = mem_s x l'.
Proof.
  intros H. destruct (mem_s x l) eqn:E.
  - symmetry. apply mem_s_In, H, mem_s_In, E.
  - symmetry. apply mem_s_not_In. intros Hin. apply mem_s_not_In in E. apply E, H, Hin.
Qed.

Lemma avail_available es base n :
  avail (map fst (rep_table es)) base n = available es base n.
Proof.
  unfold avail, available, spec_bases. f_equal. rewrite sfx_name_suffixed.
  apply (mem_s_ext (suffixed base n)). intros y. apply rep_table_keys_In.
Qed.

Theorem names_follow_official order body es nm :
  is_perm order -> msg_entries body = Ok es -> msg_names order body = Ok nm ->
  follows_official es (name_of nm).
Proof.
  intros Hp Hes Hnm. unfold msg_names in Hnm. rewrite Hes in Hnm. cbn [bind] in Hnm.
  rewrite (step2_rep_table order es Hp) in Hnm. injection Hnm as <-.
  set (tbl := rep_table es). set (bases := map fst tbl).
  pose proof (all_nodes_NoDup tbl (rep_table_strs_NoDup es) (order bases) (order_keys_NoDup order es Hp)) as Hnd.
  intros base s j Hj.
  pose proof (rep_table_assoc_In es base s (nth_error_In _ _ Hj)) as Ha. fold tbl in Ha.
  pose proof (order_keys_In order es base _ Hp Ha) as Hin.
  assert (forall name, In (name, (base, s)) (writes tbl base) ->
                       name_of (flat_map (writes tbl) (order bases)) base s = name) as Hname.
  { intros name Hw. apply name_of_In; [exact Hnd|]. apply in_flat_map. exists base. split; assumption. }
  unfold official_name.
  destruct (assign_base_total bases base (variants es base)) as [ws Hws].
  assert (writes tbl base = ws) as Hwr by (unfold writes; fold bases; rewrite Ha, Hws; reflexivity).
  destruct (variants es base) as [|s0 [|s1 r]] eqn:Ev.
  - destruct j; discriminate.
  - destruct j as [|[|j]]; cbn in Hj; try discriminate. injection Hj as <-.
    cbn in Hws. injection Hws as <-. apply Hname. rewrite Hwr. left. reflexivity.
  - unfold assign_base in Hws. apply number_nodes_spec in Hws.
    destruct (numbered_nth bases base 1 _ _ Hws ltac:(lia) j s Hj) as (k & Hk & Hk1 & Hav & Hc).
    exists k. split.
    + unfold nth_available. split; [exact Hk1|]. split.
      * rewrite <- avail_available. exact Hav.
      * rewrite <- (filter_ext _ _ (avail_available es base)). exact Hc.
    + rewrite <- sfx_name_suffixed. apply Hname. rewrite Hwr. exact Hk.
Qed.

Lemma ph_count_list_app l l' : ph_count_list (l ++ l') = (ph_count_list l + ph_count_list l')%nat.
Proof. induction l as [|x l IH]; cbn [app ph_count_list fold_right]; [reflexivity|]. fold (ph_count_list (l ++ l')). fold (ph_count_list l). lia. Qed.

Lemma ph_count_list_ph_nodes l : ph_count_list (ph_nodes l) = ph_count_list l.
Proof.
  induction l as [|x l IH]; [reflexivity|]. unfold ph_nodes. cbn [filter].
  destruct x; cbn [is_ph]; unfold ph_count_list; cbn [fold_right];
    fold (ph_count_list l); fold (ph_nodes l); fold (ph_count_list (ph_nodes l)); rewrite IH; reflexivity.
Qed.

Lemma ph_nodes_all l : Forall (fun p => is_ph p = true) (ph_nodes l).
Proof. apply Forall_forall. intros x Hx. apply filter_In in Hx. tauto. Qed.

Definition cases_count (cases : list (Z * list mpart)) : nat :=
  fold_right (fun c acc => (ph_count_list (snd c) + acc)%nat) 0%nat cases.

Lemma ph_count_plural b s cases d : ph_count (MPlural b s cases d) = S (cases_count cases + ph_count_list d).
Proof. reflexivity. Qed.

Lemma plural_case_bodies_count cases d :
  ph_count_list (plural_case_bodies cases d) = (cases_count cases + ph_count_list d)%nat.
Proof.
  unfold plural_case_bodies. rewrite ph_count_list_app, ph_count_list_ph_nodes. f_equal.
  induction cases as [|c r IH]; [reflexivity|]. cbn [flat_map cases_count fold_right].
  rewrite ph_count_list_app, ph_count_list_ph_nodes. fold (cases_count r). rewrite IH. reflexivity.
Qed.

Lemma plural_case_bodies_all cases d : Forall (fun p => is_ph p = true) (plural_case_bodies cases d).
Proof.
  unfold plural_case_bodies. apply Forall_app. split; [|apply ph_nodes_all].
  apply Forall_forall. intros x Hx. apply in_flat_map in Hx. destruct Hx as [c [_ Hx]].
  apply filter_In in Hx. tauto.
Qed.

Lemma msg_bfs_total fuel : forall q, Forall (fun p => is_ph p = true) q -> (ph_count_list q <= fuel)%nat ->
  exists r, msg_bfs fuel q = Ok r.
Proof.
  induction fuel as [|f IH]; intros [|node rest] Hq Hlen; cbn [msg_bfs]; eauto.
  - exfalso. inversion Hq; subst. unfold ph_count_list in Hlen. cbn [fold_right] in Hlen.
    destruct node; cbn in *; try discriminate; lia.
  - inversion Hq as [|x l Hnode Hrest]; subst.
    unfold ph_count_list in Hlen. cbn [fold_right] in Hlen. fold (ph_count_list rest) in Hlen.
    destruct node as [t|b s|b s cases d]; [discriminate| |].
    + destruct (IH rest Hrest) as [r ->]; [cbn [ph_count] in Hlen; lia|]. cbn [bind]. eauto.
    + destruct (IH (rest ++ plural_case_bodies cases d)) as [r ->].
      * apply Forall_app. split; [exact Hrest | apply plural_case_bodies_all].
      * rewrite ph_count_list_app, plural_case_bodies_count. rewrite ph_count_plural in Hlen. lia.
      * cbn [bind]. eauto.
Qed.

Theorem msg_entries_total body : exists es, msg_entries body = Ok es.
Proof.
  unfold msg_entries. apply msg_bfs_total; [apply ph_nodes_all | rewrite ph_count_list_ph_nodes; lia].
Qed.

Theorem msg_named_total order body : is_perm order -> exists named, msg_named order body = Ok named.
Proof.
  intros Hp. unfold msg_named, msg_names. destruct (msg_entries_total body) as [es ->]. cbn [bind].
  rewrite (step2_rep_table order es Hp). cbn [bind]. eauto.
Qed.

Theorem id_function_of_content order m named :
  msg_named order (m_body m) = Ok named ->
  msg_id order m = Ok (calc_id (write_fp_list false named) (m_meaning m)).
Proof. intros H. unfold msg_id. rewrite H. reflexivity. Qed.

Theorem id_ignores_desc order m desc :
  msg_id order {| m_meaning := m_meaning m; m_desc := desc; m_body := m_body m |} = msg_id order m.
Proof. reflexivity. Qed.

Theorem id_same_content order m m' :
  m_body m = m_body m' -> m_meaning m = m_meaning m' -> msg_id order m = msg_id order m'.
Proof. intros Hb Hm. unfold msg_id. rewrite Hb, Hm. reflexivity. Qed.

(* the fingerprinted string and the meaning determine the id, whatever the
   placeholders were before they were named *)
Theorem id_same_fingerprint_string order m m' named named' :
  msg_named order (m_body m) = Ok named -> msg_named order (m_body m') = Ok named' ->
  write_fp_list false named = write_fp_list false named' -> m_meaning m = m_meaning m' ->
  msg_id order m = msg_id order m'.
Proof.
  intros H H' Hs Hm. rewrite (id_function_of_content _ _ _ H), (id_function_of_content _ _ _ H'), Hs, Hm. reflexivity.
Qed.

(* surrounding code and other messages do not enter *)
Theorem id_ignores_context order pre m post :
  process_messages order (pre ++ IMsg m :: post) =
  process_messages order pre ++ msg_id order m :: process_messages order post.
Proof. unfold process_messages. rewrite flat_map_app. reflexivity. Qed.

Theorem id_ignores_code order file :
  process_messages order file =
  process_messages order (filter (fun it => match it with IMsg _ => true | ICode _ => false end) file).
Proof.
  induction file as [|[src|m] r IH]; cbn [filter]; [reflexivity | exact IH |].
  unfold process_messages in *. cbn [flat_map]. rewrite IH. reflexivity.
Qed.

Lemma dec_of_Z_chars z : Forall (fun c => is_digit_byte c \/ c = 45) (dec_of_Z z).
Proof.
  assert (forall n, Forall (fun c => is_digit_byte c \/ c = 45) (dec_of_N n)) as H.
  { intros n. eapply Forall_impl; [|apply dec_of_N_digits]. cbn. tauto. }
  destruct z; cbn [dec_of_Z]; [repeat constructor; unfold is_digit_byte; lia | apply H | constructor; [tauto | apply H]].
Qed.

Lemma dec_of_Z_inj z z' : dec_of_Z z = dec_of_Z z' -> z = z'.
Proof.
  assert (forall p, exists c r, dec_of_N (Npos p) = c :: r /\ is_digit_byte c) as Hhd.
  { intros p. pose proof (dec_of_N_digits (Npos p)) as Hd. pose proof (dec_of_N_nonempty (Npos p)) as Hne.
    destruct (dec_of_N (Npos p)) as [|c r]; [contradiction|]. inversion Hd; subst. eauto. }
  assert (dec_of_N 0 = [48]) as H0 by reflexivity.
  destruct z as [|p|p], z' as [|q|q]; cbn [dec_of_Z]; intros H; try reflexivity.
  - rewrite <- H0 in H. apply dec_of_N_inj in H. discriminate.
  - discriminate.
  - rewrite <- H0 in H. apply dec_of_N_inj in H. discriminate.
  - apply dec_of_N_inj in H. congruence.
  - destruct (Hhd p) as (c & r & Hc & Hd). rewrite Hc in H. injection H as -> _. unfold is_digit_byte in Hd. lia.
  - discriminate.
  - destruct (Hhd q) as (c & r & Hc & Hd). rewrite Hc in H. injection H as <- _. unfold is_digit_byte in Hd. lia.
  - injection H as H. apply dec_of_N_inj in H. congruence.
Qed.

Definition is_brace (c : N) : Prop := c = 123 \/ c = 125.
Definition is_name_end (c : N) : Prop := c = 123 \/ c = 125 \/ c = 44.
Definition text_ok (t : bstr) : Prop := Forall (fun c => ~ is_brace c) t.
Definition name_ok (n : bstr) : Prop := Forall (fun c => ~ is_name_end c) n.

Definition is_text (p : npart) : bool := match p with NmText _ => true | _ => false end.

(* no empty text and no two adjacent texts (adjacent raw text nodes of an AST
   are to be read as one text) *)
Fixpoint texts_sep (l : list npart) : Prop :=
  match l with
  | [] => True
  | NmText t :: r => t <> [] /\ match r with p :: _ => is_text p = false | [] => True end /\ texts_sep r
  | _ :: r => texts_sep r
  end.

(* the guard: raw text without braces, names without braces and commas *)
Fixpoint part_ok (p : npart) : Prop :=
  match p with
  | NmText t => text_ok t
  | NmPh n => name_ok n
  | NmPlural n cases d =>
      name_ok n
      /\ fold_right (fun c acc => (texts_sep (snd c) /\ fold_right (fun x a => part_ok x /\ a) True (snd c)) /\ acc) True cases
      /\ texts_sep d /\ fold_right (fun x a => part_ok x /\ a) True d
  end.
Definition parts_ok (l : list npart) : Prop := texts_sep l /\ fold_right (fun x a => part_ok x /\ a) True l.
Definition cases_ok (cases : list (Z * list npart)) : Prop :=
  fold_right (fun c acc => parts_ok (snd c) /\ acc) True cases.

Lemma part_ok_plural n cases d : part_ok (NmPlural n cases d) <-> name_ok n /\ cases_ok cases /\ parts_ok d.
Proof. cbn [part_ok]. unfold cases_ok, parts_ok. tauto. Qed.

Lemma parts_ok_cons p l : parts_ok (p :: l) -> part_ok p /\ parts_ok l.
Proof.
  unfold parts_ok. cbn [fold_right]. intros [Hs [Hp Hl]]. split; [exact Hp|]. split; [|exact Hl].
  destruct p; cbn [texts_sep] in Hs; tauto.
Qed.

Fixpoint nsize (p : npart) : nat :=
  match p with
  | NmText _ => 1
  | NmPh _ => 1
  | NmPlural _ cases d =>
      S (fold_right (fun c acc => S (fold_right (fun x a => nsize x + a) 0 (snd c) + acc)) 0 cases
         + fold_right (fun x a => nsize x + a) 0 d)%nat
  end.
Definition nsize_list (l : list npart) : nat := fold_right (fun x a => (nsize x + a)%nat) 0%nat l.
Definition csize (cases : list (Z * list npart)) : nat :=
  fold_right (fun c acc => S (nsize_list (snd c) + acc)) 0%nat cases.

Lemma nsize_plural n cases d : nsize (NmPlural n cases d) = S (csize cases + nsize_list d).
Proof. reflexivity. Qed.

Definition cases_str (cases : list (Z * list npart)) : bstr :=
  flat_map (fun c => 61 :: dec_of_Z (fst c) ++ 123 :: write_fp_list true (snd c) ++ [125]) cases.

Lemma write_fp_plural n cases d :
  write_fp true (NmPlural n cases d) =
  123 :: n ++ s_plural_kw ++ cases_str cases ++ s_other_open ++ write_fp_list true d ++ [125; 125].
Proof. reflexivity. Qed.

Lemma write_fp_list_cons p l : write_fp_list true (p :: l) = write_fp true p ++ write_fp_list true l.
Proof. reflexivity. Qed.

(* where a body may end: at the end of the string or before a closing brace *)
Definition stop (r : bstr) : Prop := r = [] \/ exists r', r = 125 :: r'.
(* empty or starting with a brace *)
Definition brace_start (r : bstr) : Prop := r = [] \/ exists c r', r = c :: r' /\ is_brace c.

Lemma text_split t1 t2 r1 r2 : text_ok t1 -> text_ok t2 -> brace_start r1 -> brace_start r2 ->
  t1 ++ r1 = t2 ++ r2 -> t1 = t2 /\ r1 = r2.
Proof.
  intros H1 H2 [->|(c1 & r1' & -> & Hc1)] [->|(c2 & r2' & -> & Hc2)] H.
  - rewrite !app_nil_r in H. auto.
  - rewrite app_nil_r in H. subst t1. exfalso. apply Forall_app in H1. destruct H1 as [_ H1].
    inversion H1; subst. contradiction.
  - rewrite app_nil_r in H. subst t2. exfalso. apply Forall_app in H2. destruct H2 as [_ H2].
    inversion H2; subst. contradiction.
  - apply (split_at_first is_brace) in H; try assumption. destruct H as (-> & -> & ->). auto.
Qed.

Lemma rest_brace_start l r : parts_ok l -> match l with p :: _ => is_text p = false | [] => True end ->
  stop r -> brace_start (write_fp_list true l ++ r).
Proof.
  intros Hok Hhd Hr. destruct l as [|p l].
  - cbn. destruct Hr as [->|[r' ->]]; [left; reflexivity | right; exists 125, r'; split; [reflexivity | right; reflexivity]].
  - destruct p as [t|n|n cases d]; [discriminate| |]; right; rewrite write_fp_list_cons.
    + cbn [write_fp app]. eexists _, _. split; [reflexivity | left; reflexivity].
    + rewrite write_fp_plural. cbn [app]. eexists _, _. split; [reflexivity | left; reflexivity].
Qed.

Lemma name_split n1 n2 c1 c2 r1 r2 : name_ok n1 -> name_ok n2 -> is_name_end c1 -> is_name_end c2 ->
  n1 ++ c1 :: r1 = n2 ++ c2 :: r2 -> n1 = n2 /\ c1 = c2 /\ r1 = r2.
Proof. intros. apply (split_at_first is_name_end); assumption. Qed.

Section Inj.
  Variable n : nat.
  (* induction hypothesis: bodies of size at most n *)
  Hypothesis IH : forall l1, (nsize_list l1 <= n)%nat -> forall l2 r1 r2,
    parts_ok l1 -> parts_ok l2 -> stop r1 -> stop r2 ->
    write_fp_list true l1 ++ r1 = write_fp_list true l2 ++ r2 -> l1 = l2 /\ r1 = r2.

  Lemma cases_inj : forall cs1, (csize cs1 <= n)%nat -> forall cs2 t1 t2,
    cases_ok cs1 -> cases_ok cs2 ->
    cases_str cs1 ++ s_other_open ++ t1 = cases_str cs2 ++ s_other_open ++ t2 -> cs1 = cs2 /\ t1 = t2.
  Proof.
    induction cs1 as [|[v1 b1] cs1 IHc]; intros Hsz [|[v2 b2] cs2] t1 t2 Hok1 Hok2 H.
    - unfold cases_str in H. cbn [flat_map app] in H. apply app_inv_head in H. auto.
    - cbn in H. discriminate.
    - cbn in H. discriminate.
    - unfold cases_str in H. cbn [flat_map fst snd] in H. fold (cases_str cs1) in H. fold (cases_str cs2) in H.
      cbn [app] in H. injection H as H.
      repeat rewrite <- app_assoc in H. cbn [app] in H.
      apply (split_at_first (fun c => c = 123)) in H; try reflexivity.
      2,3: eapply Forall_impl; [|apply dec_of_Z_chars]; cbn; unfold is_digit_byte; intros a [Ha|Ha]; lia.
      destruct H as (Hv & _ & H). apply dec_of_Z_inj in Hv. subst v2.
      repeat rewrite <- app_assoc in H. cbn [app] in H.
      cbn [cases_ok fold_right snd] in Hok1, Hok2. destruct Hok1 as [Hb1 Hok1], Hok2 as [Hb2 Hok2].
      cbn [csize fold_right snd] in Hsz. fold (csize cs1) in Hsz.
      apply IH in H; [| lia | assumption | assumption | right; eauto | right; eauto].
      destruct H as [-> H]. injection H as H.
      apply IHc in H; [| lia | assumption | assumption]. destruct H as [-> ->]. auto.
  Qed.
End Inj.

Lemma head_not_stop p l r r1 : parts_ok (p :: l) -> stop r1 -> r1 = write_fp_list true (p :: l) ++ r -> False.
Proof.
  intros Hok Hr1 H. rewrite write_fp_list_cons in H.
  destruct p as [t|m|m cases d].
  - destruct Hok as [[Hne _] [Ht _]]. cbn in Ht. destruct t as [|c t]; [contradiction|].
    apply Forall_inv in Ht. cbn in H. destruct Hr1 as [E|[r' E]]; rewrite E in H; [discriminate|].
    injection H as <- _. apply Ht. right; reflexivity.
  - cbn in H. destruct Hr1 as [E|[r' E]]; rewrite E in H; discriminate.
  - rewrite write_fp_plural in H. cbn in H. destruct Hr1 as [E|[r' E]]; rewrite E in H; discriminate.
Qed.

(* a raw text is not empty and does not begin with the brace that opens a placeholder *)
Lemma text_not_open t l x y : parts_ok (NmText t :: l) -> t ++ x = 123 :: y -> False.
Proof.
  intros [[Hne _] [Ht _]] H. destruct t as [|c t]; [contradiction|].
  injection H as -> _. apply Forall_inv in Ht. apply Ht. left; reflexivity.
Qed.

(* after the name a placeholder has "}", a plural "," *)
Lemma ph_not_plural m1 m2 cs d x y : part_ok (NmPh m1) -> part_ok (NmPlural m2 cs d) ->
  write_fp true (NmPh m1) ++ x = write_fp true (NmPlural m2 cs d) ++ y -> False.
Proof.
  intros H1 H2 H. apply part_ok_plural in H2. destruct H2 as [H2 _].
  rewrite write_fp_plural in H. cbn [write_fp app] in H. injection H as H.
  repeat rewrite <- app_assoc in H. unfold s_plural_kw in H. cbn [app] in H.
  apply name_split in H; [| exact H1 | exact H2 | right; left; reflexivity | right; right; reflexivity].
  destruct H as (_ & Hc & _). discriminate.
Qed.

Lemma phstring_inj_aux : forall n l1, (nsize_list l1 <= n)%nat -> forall l2 r1 r2,
  parts_ok l1 -> parts_ok l2 -> stop r1 -> stop r2 ->
  write_fp_list true l1 ++ r1 = write_fp_list true l2 ++ r2 -> l1 = l2 /\ r1 = r2.
Proof.
  induction n as [|n IHn]; intros l1 Hsz l2 r1 r2 Hok1 Hok2 Hr1 Hr2 H;
    (destruct l1 as [|p1 l1];
     [destruct l2 as [|p l2]; [cbn in H; auto | exfalso; exact (head_not_stop _ _ _ _ Hok2 Hr1 H)]|]).
  - (* size 0: l1 is empty *)
    exfalso; unfold nsize_list in Hsz; cbn [fold_right] in Hsz; destruct p1; cbn [nsize] in Hsz; lia.
  - destruct l2 as [|p2 l2].
    { exfalso. eapply head_not_stop; [exact Hok1 | exact Hr2 | symmetry; exact H]. }
    pose proof (parts_ok_cons _ _ Hok1) as [Hp1 Hl1]. pose proof (parts_ok_cons _ _ Hok2) as [Hp2 Hl2].
    rewrite !write_fp_list_cons in H. repeat rewrite <- app_assoc in H.
    assert (nsize_list l1 <= n)%nat as Hsz1.
    { unfold nsize_list in Hsz. cbn [fold_right] in Hsz. fold (nsize_list l1) in Hsz. destruct p1; cbn [nsize] in Hsz; lia. }
    destruct p1 as [t1|m1|m1 cs1 d1], p2 as [t2|m2|m2 cs2 d2].
    + (* text, text *)
      cbn [write_fp] in H.
      destruct Hok1 as [[Hne1 [Hh1 _]] _], Hok2 as [[Hne2 [Hh2 _]] _].
      apply text_split in H; [| exact Hp1 | exact Hp2 | apply rest_brace_start; assumption | apply rest_brace_start; assumption].
      destruct H as [-> H]. apply IHn in H; try assumption. destruct H as [-> ->]. auto.
    + (* text, placeholder *)
      exfalso. cbn [write_fp app] in H. exact (text_not_open _ _ _ _ Hok1 H).
    + exfalso. rewrite write_fp_plural in H. cbn [write_fp app] in H. exact (text_not_open _ _ _ _ Hok1 H).
    + exfalso. cbn [write_fp app] in H. exact (text_not_open _ _ _ _ Hok2 (eq_sym H)).
    + (* placeholder, placeholder *)
      cbn [write_fp app] in H. injection H as H. repeat rewrite <- app_assoc in H. cbn [app] in H.
      apply name_split in H; [| exact Hp1 | exact Hp2 | right; left; reflexivity | right; left; reflexivity].
      destruct H as (-> & _ & H). apply IHn in H; try assumption. destruct H as [-> ->]. auto.
    + exfalso. exact (ph_not_plural _ _ _ _ _ _ Hp1 Hp2 H).
    + exfalso. rewrite write_fp_plural in H. cbn [write_fp app] in H. exact (text_not_open _ _ _ _ Hok2 (eq_sym H)).
    + exfalso. exact (ph_not_plural _ _ _ _ _ _ Hp2 Hp1 (eq_sym H)).
    + (* plural, plural *)
      rewrite !write_fp_plural in H. cbn [app] in H. injection H as H.
      repeat rewrite <- app_assoc in H. unfold s_plural_kw in H. cbn [app] in H.
      apply part_ok_plural in Hp1, Hp2. destruct Hp1 as (Hm1 & Hc1 & Hd1), Hp2 as (Hm2 & Hc2 & Hd2).
      apply name_split in H; [| exact Hm1 | exact Hm2 | right; right; reflexivity | right; right; reflexivity].
      destruct H as (-> & _ & H). repeat (injection H as H).
      repeat (rewrite <- app_assoc in H; cbn [app] in H).
      unfold nsize_list in Hsz. cbn [fold_right] in Hsz. fold (nsize_list l1) in Hsz. rewrite nsize_plural in Hsz.
      apply (cases_inj n IHn) in H; [| lia | assumption | assumption].
      destruct H as [-> H]. cbn [app] in H.
      apply IHn in H; [| lia | assumption | assumption | right; eauto | right; eauto].
      destruct H as [-> H]. repeat (injection H as H).
      apply IHn in H; try assumption. destruct H as [-> ->]. auto.
Qed.

(* Two messages in which raw text contains no brace and names contain neither
   braces nor commas, read with adjacent raw texts joined, have the same braced
   placeholder string only if they agree in text, names, order and plural
   structure. *)
Theorem phstring_injective l1 l2 :
  parts_ok l1 -> parts_ok l2 -> write_fp_list true l1 = write_fp_list true l2 -> l1 = l2.
Proof.
  intros H1 H2 H.
  destruct (phstring_inj_aux (nsize_list l1) l1 (le_n _) l2 [] [] H1 H2) as [Heq _];
    [left; reflexivity | left; reflexivity | rewrite !app_nil_r; exact H | exact Heq].
Qed.

(* arbitrary bodies: join adjacent raw texts, drop empty ones *)

Definition join_step (p : npart) (acc : list npart) : list npart :=
  match p with
  | NmText [] => acc
  | NmText t => match acc with NmText t' :: r => NmText (t ++ t') :: r | _ => p :: acc end
  | _ => p :: acc
  end.
Definition join_texts (l : list npart) : list npart := fold_right join_step [] l.

Fixpoint norm (p : npart) : npart :=
  match p with
  | NmPlural n cases d =>
      NmPlural n (map (fun c => (fst c, join_texts (map norm (snd c)))) cases) (join_texts (map norm d))
  | _ => p
  end.
Definition normalize (l : list npart) : list npart := join_texts (map norm l).

(* the guard alone: raw text without braces, names without braces and commas *)
Fixpoint guard (p : npart) : Prop :=
  match p with
  | NmText t => text_ok t
  | NmPh n => name_ok n
  | NmPlural n cases d =>
      name_ok n
      /\ fold_right (fun c acc => fold_right (fun x a => guard x /\ a) True (snd c) /\ acc) True cases
      /\ fold_right (fun x a => guard x /\ a) True d
  end.
Definition guard_list (l : list npart) : Prop := fold_right (fun x a => guard x /\ a) True l.

Section NpartInd.
  Variable P : npart -> Prop.
  Hypothesis Htext : forall t, P (NmText t).
  Hypothesis Hph : forall n, P (NmPh n).
  Hypothesis Hpl : forall n cases d,
    Forall (fun c => Forall P (snd c)) cases -> Forall P d -> P (NmPlural n cases d).
  Fixpoint npart_ind' (p : npart) : P p :=
    match p with
    | NmText t => Htext t
    | NmPh n => Hph n
    | NmPlural n cases d =>
        Hpl n cases d
          ((fix go (l : list (Z * list npart)) : Forall (fun c => Forall P (snd c)) l :=
              match l with
              | [] => Forall_nil _
              | c :: r =>
                  Forall_cons c
                    ((fix go2 (l2 : list npart) : Forall P l2 :=
                        match l2 with [] => Forall_nil _ | x :: r2 => Forall_cons x (npart_ind' x) (go2 r2) end) (snd c))
                    (go r)
              end) cases)
          ((fix go2 (l2 : list npart) : Forall P l2 :=
              match l2 with [] => Forall_nil _ | x :: r2 => Forall_cons x (npart_ind' x) (go2 r2) end) d)
    end.
End NpartInd.

Lemma join_texts_string l : write_fp_list true (join_texts l) = write_fp_list true l.
Proof.
  induction l as [|p l IH]; [reflexivity|]. cbn [join_texts fold_right]. fold (join_texts l).
  rewrite write_fp_list_cons, <- IH.
  destruct p as [[|c t]|n|n cases d]; cbn [join_step]; try reflexivity.
  destruct (join_texts l) as [|[t'|n'|n' cs' d'] r]; try reflexivity.
  rewrite !write_fp_list_cons. cbn [write_fp]. rewrite app_assoc. reflexivity.
Qed.

Lemma flat_map_ext_Forall {A B} (f g : A -> list B) l : Forall (fun x => f x = g x) l -> flat_map f l = flat_map g l.
Proof. induction 1; cbn; congruence. Qed.

Lemma norm_string p : write_fp true (norm p) = write_fp true p.
Proof.
  induction p as [t|n|n cases d IHc IHd] using npart_ind'; try reflexivity.
  cbn [norm]. rewrite !write_fp_plural. f_equal. f_equal. f_equal.
  assert (forall l, Forall (fun x => write_fp true (norm x) = write_fp true x) l ->
                    write_fp_list true (join_texts (map norm l)) = write_fp_list true l) as Hl.
  { intros l Hf. rewrite join_texts_string. unfold write_fp_list. rewrite flat_map_concat_map, map_map, <- flat_map_concat_map.
    apply flat_map_ext_Forall, Hf. }
  f_equal; [|rewrite (Hl d IHd); reflexivity].
  unfold cases_str. rewrite flat_map_concat_map, map_map, <- flat_map_concat_map.
  apply flat_map_ext_Forall. eapply Forall_impl; [|exact IHc]. cbn beta. intros c Hc. cbn [fst snd].
  rewrite (Hl _ Hc). reflexivity.
Qed.

Lemma normalize_string l : write_fp_list true (normalize l) = write_fp_list true l.
Proof.
  unfold normalize. rewrite join_texts_string. unfold write_fp_list.
  rewrite flat_map_concat_map, map_map, <- flat_map_concat_map.
  apply flat_map_ext_Forall, Forall_forall. intros x _. apply norm_string.
Qed.

Definition all_ok (l : list npart) : Prop := fold_right (fun x a => part_ok x /\ a) True l.

Lemma join_texts_sep l : texts_sep (join_texts l).
Proof.
  induction l as [|p l IH]; [exact I|]. cbn [join_texts fold_right]. fold (join_texts l).
  destruct p as [[|c t]|n|n cases d]; cbn [join_step]; try exact IH.
  destruct (join_texts l) as [|[t'|n'|n' cs' d'] r]; cbn [texts_sep] in *.
  - split; [discriminate | auto].
  - destruct IH as (Hne & Hh & Hr). split; [discriminate | auto].
  - split; [discriminate | auto].
  - split; [discriminate | auto].
Qed.

Lemma join_texts_all_ok l : all_ok l -> all_ok (join_texts l).
Proof.
  induction l as [|p l IH]; [auto|]. cbn [all_ok fold_right]. intros [Hp Hl]. specialize (IH Hl).
  cbn [join_texts fold_right]. fold (join_texts l).
  destruct p as [[|c t]|n|n cases d]; cbn [join_step]; try (split; assumption); try exact IH.
  destruct (join_texts l) as [|[t'|n'|n' cs' d'] r]; try (split; assumption).
  cbn [all_ok fold_right] in *. destruct IH as [Ht' Hr]. split; [|exact Hr].
  cbn [part_ok] in *. apply Forall_app. split; assumption.
Qed.

(* the conjunctions over a list that the guards are written with, through a map *)
Lemma and_list_map {A B} (P : A -> Prop) (Q : B -> Prop) (f : A -> B) l :
  Forall (fun x => P x -> Q (f x)) l ->
  fold_right (fun x a => P x /\ a) True l -> fold_right (fun x a => Q x /\ a) True (map f l).
Proof. induction 1 as [|x l Hx _ IH]; cbn [fold_right map]; [auto|]. intros [Hp Hl]. auto. Qed.

Lemma norm_list_ok l : Forall (fun x => guard x -> part_ok (norm x)) l -> guard_list l -> parts_ok (join_texts (map norm l)).
Proof. intros Hl Hg. split; [apply join_texts_sep | apply join_texts_all_ok, (and_list_map guard part_ok); assumption]. Qed.

Lemma norm_ok p : guard p -> part_ok (norm p).
Proof.
  induction p as [t|n|n cases d IHc IHd] using npart_ind'; cbn [guard norm]; try tauto.
  intros (Hn & Hc & Hd). apply part_ok_plural. split; [exact Hn|]. split; [|apply norm_list_ok; assumption].
  apply (and_list_map (fun c => guard_list (snd c)) (fun c => parts_ok (snd c))); [|exact Hc].
  eapply Forall_impl; [|exact IHc]. intro c. apply norm_list_ok.
Qed.

Lemma normalize_ok l : guard_list l -> parts_ok (normalize l).
Proof. apply norm_list_ok, Forall_forall. intros x _. apply norm_ok. Qed.

(* Full form: for any two bodies satisfying the guard, equal braced placeholder
   strings mean equal bodies once adjacent raw texts are joined. *)
Theorem phstring_injective_normalized l1 l2 :
  guard_list l1 -> guard_list l2 -> write_fp_list true l1 = write_fp_list true l2 ->
  normalize l1 = normalize l2.
Proof.
  intros H1 H2 H. apply phstring_injective; [apply normalize_ok, H1 | apply normalize_ok, H2|].
  rewrite !normalize_string. exact H.
Qed.

(* names handed out by the algorithm satisfy the guard when the base names do *)
Lemma sfx_name_ok base n : name_ok base -> name_ok (sfx_name base n).
Proof.
  intros H. unfold sfx_name. apply Forall_app. split; [exact H|].
  constructor; [unfold is_name_end; lia|].
  eapply Forall_impl; [|apply dec_of_N_digits]. cbn. unfold is_digit_byte, is_name_end. intros a Ha. lia.
Qed.

Lemma sel_In b s es : In s (sel b es) <-> In (b, s) es.
Proof.
  unfold sel. rewrite in_map_iff. split.
  - intros [[b' s'] [Hs Hin]]. cbn in Hs. subst s'. apply filter_In in Hin. destruct Hin as [Hin Hb].
    cbn in Hb. apply bstr_eqb_eq in Hb. subst. exact Hin.
  - intros Hin. exists (b, s). split; [reflexivity|]. apply filter_In. split; [exact Hin | apply bstr_eqb_refl].
Qed.

Lemma dedup_from_In x l : forall seen, In x (dedup_from seen l) <-> In x seen \/ In x l.
Proof.
  induction l as [|y l IH]; intros seen; cbn [dedup_from In]; [tauto|].
  rewrite IH. destruct (existsb (bstr_eqb y) seen) eqn:E.
  - fold (mem_s y seen) in E. apply mem_s_In in E. split; [tauto|]. intros [H|[<-|H]]; tauto.
  - rewrite in_app_iff. cbn [In]. tauto.
Qed.

Lemma variants_In es b s : In s (variants es b) <-> In (b, s) es.
Proof. unfold variants. fold (sel b es). rewrite dedup_from_In, sel_In. cbn. tauto. Qed.

Section Cover.
  Variables (order : list bstr -> list bstr) (body : list mpart) (es : list (bstr * bstr)) (nm : namemap).
  Hypothesis Hp : is_perm order.
  Hypothesis Hes : msg_entries body = Ok es.
  Hypothesis Hnm : msg_names order body = Ok nm.

  Let tbl := rep_table es.
  Let bases := map fst tbl.

  Lemma nm_is_writes : nm = flat_map (writes tbl) (order bases).
  Proof.
    unfold msg_names in Hnm. rewrite Hes in Hnm. cbn [bind] in Hnm.
    rewrite (step2_rep_table order es Hp) in Hnm. injection Hnm as <-. reflexivity.
  Qed.

  Lemma nm_names_NoDup : NoDup (map fst nm).
  Proof. rewrite nm_is_writes. apply all_names_NoDup, order_keys_NoDup, Hp. Qed.

  Lemma nm_nodes_NoDup : NoDup (map snd nm).
  Proof. rewrite nm_is_writes. apply all_nodes_NoDup; [apply rep_table_strs_NoDup | apply order_keys_NoDup, Hp]. Qed.

  (* every placeholder of the message is named *)
  Lemma names_cover b s : In (b, s) es -> In (name_of nm b s, (b, s)) nm.
  Proof.
    intros Hin. apply variants_In in Hin.
    pose proof (rep_table_assoc_In es b s Hin) as Ha. fold tbl in Ha.
    assert (In (b, s) (map snd (writes tbl b))) as Hw.
    { rewrite (writes_nodes tbl b _ Ha). apply in_map, Hin. }
    apply in_map_iff in Hw. destruct Hw as [[name node] [Heq Hw]]. cbn in Heq. subst node.
    assert (In (name, (b, s)) nm) as Hn.
    { rewrite nm_is_writes. apply in_flat_map. exists b. split; [exact (order_keys_In order es b _ Hp Ha) | exact Hw]. }
    rewrite (name_of_In nm name b s nm_nodes_NoDup Hn). exact Hn.
  Qed.

  (* a name is never used for two distinct placeholders *)
  Theorem names_distinct b s b' s' :
    In (b, s) es -> In (b', s') es -> name_of nm b s = name_of nm b' s' -> (b, s) = (b', s').
  Proof.
    intros H1 H2 Heq. apply names_cover in H1, H2. rewrite Heq in H1.
    eapply NoDup_fst_functional; [apply nm_names_NoDup | exact H1 | exact H2].
  Qed.

  (* a name is the base name or the base name with a numeric suffix (or empty
     for a node that is not in the message) *)
  Lemma name_of_shape b s :
    name_of nm b s = [] \/ name_of nm b s = b \/ exists k, name_of nm b s = sfx_name b k.
  Proof.
    destruct (in_dec node_eq_dec (b, s) (map snd nm)) as [Hin|Hnin]; [|left; apply name_of_notin, Hnin].
    right. apply in_map_iff in Hin. destruct Hin as [[name node] [Heq Hin]]. cbn in Heq. subst node.
    rewrite (name_of_In nm name b s nm_nodes_NoDup Hin).
    rewrite nm_is_writes in Hin. apply in_flat_map in Hin. destruct Hin as [k [_ Hw]].
    assert (k = b) as ->.
    { destruct (assoc_s k tbl) as [strs|] eqn:Hs.
      - apply (in_map snd) in Hw. rewrite (writes_nodes tbl k strs Hs) in Hw.
        apply in_map_iff in Hw. destruct Hw as [s0 [[= -> _] _]]. reflexivity.
      - unfold writes in Hw. rewrite Hs in Hw. destruct Hw. }
    apply (in_map fst) in Hw. apply writes_names in Hw. cbn [fst] in Hw.
    destruct Hw as [[-> _]|(n & _ & ->)]; [left; reflexivity | right; eauto].
  Qed.

  Lemma name_of_ok b s : name_ok b -> name_ok (name_of nm b s).
  Proof.
    intros Hb. destruct (name_of_shape b s) as [->|[->|[k ->]]]; [constructor | exact Hb | apply sfx_name_ok, Hb].
  Qed.
End Cover.

(* the guard on a message before naming: raw text without braces, base names
   without braces and commas (true of the base names genBasePlaceholderName
   produces from identifiers and tag names) *)
Fixpoint mguard (p : mpart) : Prop :=
  match p with
  | MText t => text_ok t
  | MPh b _ => name_ok b
  | MPlural b _ cases d =>
      name_ok b
      /\ fold_right (fun c acc => fold_right (fun x a => mguard x /\ a) True (snd c) /\ acc) True cases
      /\ fold_right (fun x a => mguard x /\ a) True d
  end.
Definition mguard_list (l : list mpart) : Prop := fold_right (fun x a => mguard x /\ a) True l.

Lemma set_names_guard nm : (forall b s, name_ok b -> name_ok (name_of nm b s)) ->
  forall p, mguard p -> guard (set_names nm p).
Proof.
  intros Hn. induction p as [t|b s|b s cases d IHc IHd] using mpart_ind'; cbn [mguard set_names guard]; auto.
  intros (Hb & Hc & Hd). split; [apply Hn, Hb|]. split; [|apply (and_list_map mguard guard); assumption].
  apply (and_list_map (fun c => mguard_list (snd c)) (fun c => guard_list (snd c))); [|exact Hc].
  eapply Forall_impl; [|exact IHc]. intro c. apply (and_list_map mguard guard).
Qed.

Theorem phstring_determines_message order m1 m2 str :
  is_perm order -> mguard_list (m_body m1) -> mguard_list (m_body m2) ->
  placeholder_string order m1 = Ok str -> placeholder_string order m2 = Ok str ->
  exists n1 n2, msg_named order (m_body m1) = Ok n1 /\ msg_named order (m_body m2) = Ok n2 /\
                normalize n1 = normalize n2.
Proof.
  intros Hp Hg1 Hg2 H1 H2. unfold placeholder_string in H1, H2.
  assert (forall body named, mguard_list body -> msg_named order body = Ok named -> guard_list named) as Hguard.
  { intros body named Hg Hn. unfold msg_named in Hn.
    destruct (msg_names order body) as [nm| | | | |] eqn:Hnm; cbn [bind] in Hn; try discriminate.
    injection Hn as <-.
    destruct (msg_entries_total body) as [es Hes].
    apply (and_list_map mguard guard); [|exact Hg].
    apply Forall_forall. intros x _. apply set_names_guard.
    intros b s. apply (name_of_ok order body es nm Hp Hes Hnm). }
  destruct (msg_named order (m_body m1)) as [n1| | | | |] eqn:E1; cbn [bind] in H1; try discriminate.
  destruct (msg_named order (m_body m2)) as [n2| | | | |] eqn:E2; cbn [bind] in H2; try discriminate.
  injection H1 as H1. injection H2 as H2.
  exists n1, n2. repeat split.
  apply phstring_injective_normalized; [apply (Hguard _ _ Hg1 E1) | apply (Hguard _ _ Hg2 E2) | congruence].
Qed.

Lemma official_name_unique es base j name name' :
  official_name es base j name -> official_name es base j name' -> name = name'.
Proof.
  unfold official_name.
  assert (forall n n', nth_available es base j n -> nth_available es base j n' -> n <= n') as Hle.
  { intros n n' (H1 & Ha & Hc) (H1' & Ha' & Hc').
    destruct (N.le_gt_cases n n') as [H|H]; [exact H|]. exfalso.
    (* n' < n: n' is available and below n, so n counts at least one more *)
    pose proof (count_below_succ (available es base) n' H1') as Hs. rewrite Ha' in Hs.
    pose proof (count_below_le (available es base) (n' + 1) (N.to_nat (n - (n' + 1))) ltac:(lia)) as Hm.
    replace (n' + 1 + N.of_nat (N.to_nat (n - (n' + 1)))) with n in Hm by lia.
    unfold count_below in *. lia. }
  destruct (variants es base) as [|s0 [|s1 r]].
  - intros (n & Hn & ->) (n' & Hn' & ->). f_equal. apply N.le_antisymm; apply Hle; assumption.
  - congruence.
  - intros (n & Hn & ->) (n' & Hn' & ->). f_equal. apply N.le_antisymm; apply Hle; assumption.
Qed.
