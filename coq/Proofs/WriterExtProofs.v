(* C12 over the extended walker of Model/InterpExt.v: installed functions and print directives (arbitrary functions of
   their arguments) and rendering THROUGH a message bundle (evalMsg -> evalMsgParts: the checked writes of translated
   text, placeholders walked from inside a translation, the recursive call for the selected plural form).
   The two-run simulation of Proofs/WriterProofs.v holds of [walk_x] by the same generic principle ([walk_logic_x]);
   the render-level statements are those of WriterProofs.v, for [render_x]: [render_with_two_runs] at [walk_x]. *)
From Soy Require Import Model.Bytes Model.Num Model.Values Model.Outcome Model.Ast
  Model.Escape Model.Directives Model.Print Generated.Tables Model.Interp Model.InterpExt Spec.Writer
  Proofs.InterpLogic Proofs.WriterProofs Proofs.InterpExtProofs.
Require Import Lia.
Open Scope N_scope.

Theorem walk_x_wsim cf ux fuel n : wsim (walk_x cf ux fuel n).
Proof.
  apply (walk_logic_x cf ux _ _ wsim_logic).
  - constructor; intros; exact Logic.I.
  - intros; exact Logic.I.
  - intros; exact Logic.I.
  - intros; exact Logic.I.
Qed.

(* the two runs of one render: either identical, or the writer refused and the render says so *)
Theorem render_two_runs_x cf ux fuel name id data cl bl fid :
  let r := render_x cf ux fuel name id data cl bl fid in
  let r0 := render_x cf ux fuel name id data None None fid in
  (r = r0 /\ ~ refuses cl bl (rr_writes r0)) \/
  (refuses cl bl (rr_writes r0) /\ surfaced (rr_outcome r) /\ prefix_of (accepted r) (accepted r0) /\
   stopped_at cl bl (rr_writes r) (rr_writes r0)).
Proof. rewrite !render_x_eq. apply render_with_two_runs. intros t. apply walk_x_wsim. Qed.

Section RenderCorollaries.
Variables (cf : cfg) (ux : user_ext) (fuel : nat) (name : bstr) (id : N) (data : list (bstr * value)) (fid : N).
Let faulty cl bl := render_x cf ux fuel name id data cl bl fid.
Let free := render_x cf ux fuel name id data None None fid.

Lemma write_fault_surfaces_l_x cl bl :
  refuses cl bl (rr_writes free) -> surfaced (rr_outcome (faulty cl bl)).
Proof. apply (refused_surfaces faulty free (fun cl bl => render_two_runs_x cf ux fuel name id data cl bl fid)). Qed.

Lemma accepted_is_prefix_l_x cl bl : prefix_of (accepted (faulty cl bl)) (accepted free).
Proof. apply (refused_prefix faulty free (fun cl bl => render_two_runs_x cf ux fuel name id data cl bl fid)). Qed.

Lemma nil_means_all_written_l_x cl bl :
  rr_outcome (faulty cl bl) = Ok tt ->
  rr_writes (faulty cl bl) = rr_writes free /\ accepted (faulty cl bl) = accepted free /\ rr_outcome free = Ok tt.
Proof. apply (ok_means_all_written faulty free (fun cl bl => render_two_runs_x cf ux fuel name id data cl bl fid)). Qed.

Lemma sufficient_budget_no_change_l_x cl bl :
  ~ refuses cl bl (rr_writes free) -> faulty cl bl = free.
Proof. apply (not_refused_same faulty free (fun cl bl => render_two_runs_x cf ux fuel name id data cl bl fid)). Qed.

Lemma accepted_exact_calls_l_x k :
  refuses (Some k) None (rr_writes free) ->
  rr_writes (faulty (Some k) None) = firstn k (rr_writes free).
Proof. apply (refused_calls_exact faulty free (fun cl bl => render_two_runs_x cf ux fuel name id data cl bl fid)). Qed.

Lemma accepted_exact_bytes_l_x b :
  refuses None (Some b) (rr_writes free) ->
  accepted (faulty None (Some b)) = take (N.to_nat b) (accepted free).
Proof. apply (refused_bytes_exact faulty free (fun cl bl => render_two_runs_x cf ux fuel name id data cl bl fid)). Qed.
End RenderCorollaries.
