(* C15, bodies in which comments and tags mix: the text of a body given by the pieces of its stretches, and the
   Spec's text of the stretches after the first (Spec/TextMix.v mix_rest_out) in these terms. *)
From Soy Require Import Model.Bytes Spec.Text Spec.TextBody Spec.TextMix Proofs.RawTextProofs Proofs.LexBodyText Proofs.LexBodyMixMain
  Proofs.ParseBodyText.
Open Scope N_scope.

Fixpoint mix_out (rp : list (bstr * list bstr)) : bstr :=
  match rp with [] => [] | (o, pcs) :: rp' => o ++ norm_pieces false pcs ++ mix_out rp' end.

Lemma rest_out_pieces : forall rest out, mix_rest_out rest = Some out ->
  exists rp, rest_pieces rest rp /\ mix_out rp = out.
Proof.
  induction rest as [|[[n o] T] r IH]; intros out H.
  - cbn [mix_rest_out] in H. injection H as <-. exists []. split; [exact I|reflexivity].
  - cbn [mix_rest_out] in H. unfold body_text in H. destruct (pieces MText false [] T) as [pcs|] eqn:Hp; [|discriminate].
    destruct (mix_rest_out r) as [out'|] eqn:Hr; [|discriminate]. cbn [app_opt] in H. injection H as <-.
    destruct (IH out' eq_refl) as (rp & Hrp & Ho). exists ((o, pcs) :: rp). split; [cbn [rest_pieces]; auto|].
    cbn [mix_out]. rewrite Ho, <- app_assoc. reflexivity.
Qed.

Lemma rest_pieces_no_nul : forall rest rp, Forall (fun sg : seg => plain (snd sg)) rest -> rest_pieces rest rp ->
  Forall (fun q => Forall no_nul (snd q)) rp.
Proof.
  induction rest as [|[[n o] T] r IH]; intros rp Hok Hrp; destruct rp as [|[o' pcs] rp']; try contradiction; [constructor|].
  destruct Hrp as (_ & Hp & Hrp'). inversion Hok as [|? ? Hpl Hok']; subst.
  constructor; [exact (pieces_no_nul _ _ _ Hpl Hp)|exact (IH rp' Hok' Hrp')].
Qed.
