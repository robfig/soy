(* C02 composed with C01, part 1: two Spec results AGREE (cagree) when the first did not
   run out of fuel and the second did not leave the modelled domain and then
   they have the same bytes and the same outcome class; if the levels below
   cagree, every command clause of Spec/Cmd.v agrees. *)
From Soy Require Import Model.Bytes Model.Num Model.Values Model.Outcome Model.Ast
  Model.Escape Model.Directives Model.Print Generated.Tables Model.Interp Spec.Cmd Spec.CmdIndep
  Proofs.InterpLogic Proofs.ScopeRel.
Open Scope N_scope.

Definition same_class {A} (a c : outcome A) : Prop :=
  match a, c with
  | Ok x, Ok y => x = y
  | Err _, Err _ => True
  | Crash m, Crash m' => m = m'
  | Diverge, Diverge => True
  | OutOfModel, OutOfModel => True
  | _, _ => False
  end.

(* [a]: the fuelled Spec of Spec/Cmd.v; [c]: the composed one *)
Definition cagree {A} (a c : bstr * outcome (A * N)) : Prop :=
  snd a = OutOfFuel \/ snd c = OutOfModel \/ (fst a = fst c /\ same_class (snd a) (snd c)).

Lemma cagree_refl {A} (a : bstr * outcome (A * N)) : cagree a a.
Proof.
  destruct a as [o [x| | | | | ]]; unfold cagree; cbn; auto; right; right; split; reflexivity.
Qed.

Lemma cagree_bind {A B} (s1 s2 : Cm A) (k1 k2 : A -> Cm B) n :
  cagree (s1 n) (s2 n) -> (forall x n', cagree (k1 x n') (k2 x n')) ->
  cagree (sbind s1 k1 n) (sbind s2 k2 n).
Proof.
  unfold cagree, sbind. intros H K.
  destruct (s1 n) as [o1 r1], (s2 n) as [o2 r2]. cbn [fst snd] in H.
  destruct H as [H | [H | [Ho Hc]]].
  - subst r1. left. reflexivity.
  - subst r2. right. left. reflexivity.
  - subst o2. destruct r1 as [[x1 n1]| | | | | ], r2 as [[x2 n2]| | | | | ]; cbn in Hc; try contradiction.
    + inversion Hc; subst. specialize (K x2 n2).
      destruct (k1 x2 n2) as [p1 q1], (k2 x2 n2) as [p2 q2]. cbn [fst snd] in *.
      destruct K as [K | [K | [Kp Kc]]]; [left; exact K | right; left; exact K |].
      right. right. split; [rewrite Kp; reflexivity | exact Kc].
    + right. right. split; [reflexivity | exact I].
    + right. right. split; [reflexivity | exact Hc].
    + right. right. split; [reflexivity | exact I].
    + right. left. reflexivity.
Qed.

Lemma cagree_ebind {A B} (e1 e2 : E A) (k1 k2 : A -> E B) n :
  cagree (sE e1 n) (sE e2 n) -> (forall x n', cagree (sE (k1 x) n') (sE (k2 x) n')) ->
  cagree (sE (ebind e1 k1) n) (sE (ebind e2 k2) n).
Proof. intros H K. rewrite !sE_bind. apply cagree_bind; assumption. Qed.

Lemma cagree_capture (s1 s2 : Cm unit) n : cagree (s1 n) (s2 n) -> cagree (capture s1 n) (capture s2 n).
Proof.
  unfold cagree, capture. intros H.
  destruct (s1 n) as [o1 r1], (s2 n) as [o2 r2]. cbn [fst snd] in H.
  destruct H as [H | [H | [Ho Hc]]].
  - subst r1. left. reflexivity.
  - subst r2. right. left. reflexivity.
  - subst o2. destruct r1 as [[x1 n1]| | | | | ], r2 as [[x2 n2]| | | | | ]; cbn in Hc; try contradiction; cbn.
    + inversion Hc; subst. right. right. split; reflexivity.
    + right. right. split; [reflexivity | exact I].
    + right. right. split; [reflexivity | exact Hc].
    + right. right. split; [reflexivity | exact I].
    + right. left. reflexivity.
Qed.

Definition lv_agree (l1 l2 : level) : Prop :=
  (forall en e n, cagree (sE (l_eval l1 en e) n) (sE (l_eval l2 en e) n)) /\
  (forall entry en md c n, cagree (l_exec l1 entry en md c n) (l_exec l2 entry en md c n)) /\
  (forall entry en md c n, cagree (l_let l1 entry en md c n) (l_let l2 entry en md c n)).

Section Body.
Variable cf : cfg.
Variables l1 l2 : level.
Hypothesis HL : lv_agree l1 l2.

Let Hev : forall en e n, cagree (sE (ev l1 en e) n) (sE (ev l2 en e) n) := proj1 HL.
Let Hex : forall entry md en c n, cagree (ex l1 entry md en c n) (ex l2 entry md en c n) :=
  fun entry md en c n => proj1 (proj2 HL) entry en md c n.

(* [ab] / [aeb]: the bind rules of [cagree] (commands / expressions); [rf]: both sides are the same computation *)
Ltac ab := apply cagree_bind; [ | intros ? ? ].
Ltac aeb := apply cagree_ebind; [ | intros ? ? ].
Ltac rf := apply cagree_refl.

Lemma evdef_agree en e n : cagree (sE (evdef l1 en e) n) (sE (evdef l2 en e) n).
Proof. unfold evdef. aeb; [apply Hev | rf]. Qed.

Lemma ev_list_agree en es : forall n, cagree (sE (ev_list l1 en es) n) (sE (ev_list l2 en es) n).
Proof.
  induction es as [|e es IH]; intros n; cbn [ev_list]; [rf|].
  aeb; [apply Hev|]. aeb; [apply IH | rf].
Qed.

Lemma dirs_agree en ds : forall v n, cagree (sE (dirs_spec cf l1 en ds v) n) (sE (dirs_spec cf l2 en ds v) n).
Proof.
  induction ds as [|d ds IH]; intros v n; cbn [dirs_spec]; [rf|].
  destruct d; try rf. destruct (lookup_directive name) as [[al rest]|]; [|rf].
  destruct (negb (check_num_args al (length args))); [rf|].
  aeb; [apply ev_list_agree|]. aeb; [rf|]. aeb; [rf|]. aeb; [apply IH | rf].
Qed.

Lemma case_hit_agree en sv vs : forall n, cagree (sE (case_hit_spec l1 en sv vs) n) (sE (case_hit_spec l2 en sv vs) n).
Proof.
  induction vs as [|v vs IH]; intros n; cbn [case_hit_spec]; [rf|].
  aeb; [apply Hev|]. destruct (equals sv x); [rf | apply IH].
Qed.

Section Cmd.
Variable entry : env.
Variable md : N.

Lemma block_agree cs : forall en n, cagree (block l1 entry md en cs n) (block l2 entry md en cs n).
Proof.
  induction cs as [|c cs IH]; intros en n; [rf|].
  destruct c; cbn [block]; try (ab; [apply Hex | apply IH]).
  - ab; [apply (proj2 (proj2 HL)) | apply IH].
  - ab; [apply (proj2 (proj2 HL)) | apply IH].
Qed.

Lemma if_agree en cs : forall n, cagree (if_spec l1 entry md en cs n) (if_spec l2 entry md en cs n).
Proof.
  induction cs as [|c cs IH]; intros n; cbn [if_spec]; [rf|].
  destruct c; try rf. destruct cond as [cnd|]; [|apply Hex].
  ab; [apply Hev|]. destruct (truthy x); [apply Hex | apply IH].
Qed.

Lemma for_agree en var body last items : forall i n,
  cagree (for_spec l1 entry md en var body last i items n) (for_spec l2 entry md en var body last i items n).
Proof.
  induction items as [|x r IH]; intros i n; cbn [for_spec]; [rf|].
  ab; [apply Hex | apply IH].
Qed.

Lemma switch_agree en sv cs : forall n, cagree (switch_spec l1 entry md en sv cs n) (switch_spec l2 entry md en sv cs n).
Proof.
  induction cs as [|c cs IH]; intros n; cbn [switch_spec]; [rf|].
  destruct c; try rf. ab; [apply case_hit_agree|].
  destruct (x || match values with [] => true | _ :: _ => false end); [apply Hex | apply IH].
Qed.

Lemma params_agree en ps : forall acc n, cagree (params_spec l1 entry md en ps acc n) (params_spec l2 entry md en ps acc n).
Proof.
  induction ps as [|p ps IH]; intros acc n; cbn [params_spec]; [rf|].
  destruct p; try rf.
  - ab; [apply Hev | apply IH].
  - ab; [apply cagree_capture, Hex | apply IH].
Qed.

Lemma base_agree en alldata dat n : cagree (base_spec l1 entry en alldata dat n) (base_spec l2 entry en alldata dat n).
Proof.
  unfold base_spec. destruct alldata; [rf|]. destruct dat as [e|]; [|rf].
  ab; [apply Hev|]. destruct x; rf.
Qed.

Lemma plural_agree en mp i dflt cs : forall n,
  cagree (plural_spec l1 entry md en mp i dflt cs n) (plural_spec l2 entry md en mp i dflt cs n).
Proof.
  induction cs as [|c cs IH]; intros n; cbn [plural_spec]; [apply Hex|].
  destruct c; try rf. destruct (i =? v)%Z; [apply Hex | apply IH].
Qed.

Lemma msg_agree en mp ns : forall n, cagree (msg_spec l1 entry md en mp ns n) (msg_spec l2 entry md en mp ns n).
Proof.
  induction ns as [|c ns IH]; intros n; cbn [msg_spec]; [rf|].
  destruct c; try apply IH.
  - ab; [apply Hex | apply IH].
  - ab; [apply Hex | apply IH].
  - ab; [apply Hev|]. destruct x; try rf. ab; [apply plural_agree | apply IH].
Qed.

Lemma exec_body_agree en c n : cagree (exec_body cf l1 entry md en c n) (exec_body cf l2 entry md en c n).
Proof.
  destruct c; cbn [exec_body]; try rf.
  - apply block_agree.
  - ab; [apply Hev|]. destruct x; try rf; (ab; [apply dirs_agree | rf]).
  - ab; [|rf]. destruct expr as [e|]; [|rf]. ab; [apply Hev | rf].
  - ab; [apply cagree_capture, Hex | rf].
  - apply if_agree.
  - ab; [apply Hev|]. destruct x; try rf. destruct l as [|x0 r0].
    + destruct ifempty; [apply Hex | rf].
    + apply for_agree.
  - ab; [apply Hev | apply switch_agree].
  - destruct (find_template (r_templates (c_reg cf)) name) as [callee|]; [|rf].
    ab; [apply base_agree|]. ab; [apply params_agree|]. apply (proj1 (proj2 HL)).
  - apply msg_agree.
  - apply (proj1 (proj2 HL)).
Qed.

Lemma let_body_agree en c n : cagree (let_body l1 entry md en c n) (let_body l2 entry md en c n).
Proof.
  destruct c; cbn [let_body]; try rf.
  - apply Hev.
  - ab; [apply cagree_capture, Hex | rf].
Qed.
End Cmd.
End Body.

(* the one-pass construction of Spec/CmdIndep.v, unfolded *)
Lemma both_levels_fst cf f : fst (both_levels cf f) = spec_level cf f.
Proof. induction f as [|f IH]; [reflexivity|]. cbn [both_levels fst spec_level]. rewrite IH. reflexivity. Qed.
Lemma indep_level_0 cf : indep_level cf 0 = indep0 cf.
Proof. reflexivity. Qed.
Lemma indep_level_S cf f : indep_level cf (S f) = indep_next cf (spec_level cf f) (indep_level cf f).
Proof. unfold indep_level. cbn [both_levels snd]. rewrite both_levels_fst. reflexivity. Qed.
