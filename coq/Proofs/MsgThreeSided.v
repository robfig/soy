(* C11 x C04: a TRANSLATED message on the three sides at once.

   soyhtml renders a message that has a catalogue entry by running the translation's resolved items
   (C11_translation_places_values: run_items over map (resolve body) tr) through the walker WITH the bundle
   (walk_b); soyjs generates, for the same resolved items, an append statement per text segment and the code
   of the placeholder per slot (C11_js_translation_places_values: jrun_items).  Here the two are composed with
   C04's statement simulation: when every placeholder the translation uses is a core print ({print e|ds} over
   C04's expression subset), then, from any states related by C04's [sim],
     (Go)  run_items with walk_b writes exactly  text  = the translation's text segments and the placeholders'
           rendered values in the translation's order;
     (JS)  executing the MiniJS statements of the items, in order, appends exactly  text  to the buffer variable;
     (Gen) jrun_items with the generator's walker emits exactly the chunks of those statements;
   and the resulting states are related by [sim] again (so the code after the message continues under C04).
   The Go side uses walk_b_is_walk (Proofs/MsgWalkEq.v): on a print node the walker with a bundle is the walker,
   state for state. *)
From Coq Require Import List Lia Bool.
From Soy Require Import Model.Bytes Model.Num Model.Values Model.Outcome Model.Ast Model.JsGen Model.MiniJS
  Model.Escape Model.Directives Model.Print Generated.Tables Model.Interp Model.MsgId Model.MsgParts Spec.MsgCat
  Proofs.InterpGuard Proofs.EscapeProofs Proofs.MiniJSProofs Proofs.MiniJSPrint Proofs.MiniJSStmt Proofs.MsgIdProofs
  Proofs.MiniJSCtl Proofs.MiniJSGo Proofs.MiniJSGen Proofs.MiniJSSim
  Proofs.BytesBase Proofs.MsgPartsProofs Proofs.MsgJsProofs Proofs.MsgWalkEq.
Import ListNotations.
Open Scope N_scope.

Lemma msgfree_cnode : forall e, msgfree (cnode e) = true.
Proof.
  unfold msgfree.
  induction e as [| x | z | s | key accs | a IHa | a IHa | op a IHa c IHc | c IHc a IHa d IHd | k x];
    cbn [cnode deep msgfree_g andb forallb deep_opt]; try reflexivity;
    try rewrite IHa; try rewrite IHc; try rewrite IHd; try reflexivity.
  induction accs as [|a r IH]; [reflexivity|]. cbn [map forallb]. rewrite IH. destruct a; reflexivity.
Qed.

Lemma msgfree_print e ds : msgfree (snode (SPrint e ds)) = true.
Proof.
  unfold msgfree. cbn [snode deep msgfree_g andb]. fold (msgfree (cnode e)). rewrite msgfree_cnode. cbn [andb].
  induction ds as [|d r IH]; [reflexivity|]. cbn [map forallb]. rewrite IH. reflexivity.
Qed.

Inductive item_stmt : titem -> cstmt -> Prop :=
| is_text t : item_stmt (TText t) (SRaw t)
| is_print p n e ds : item_stmt (TPh p n (snode (SPrint e ds))) (SPrint e ds)
(* an html tag of the message: soyhtml writes its text, soyjs appends it as a literal *)
| is_tag p n q t : item_stmt (TPh p n (NMsgHtmlTag q t)) (SRaw t).

Section Three.
Variable cf : cfg.
Variable plural_index : Z -> nat.
Variable bd : bundle.
Variable o : jopts.
Variable lv : list bstr.
(* C04's statements are relative to a call context (Proofs/MiniJSSim.v callctx): raw text and prints
   call nothing, so the context without calls over the template's data [denv] does *)
Variable denv : bstr -> option value.
Hypothesis Hdenv : envok denv.
Local Notation sout ij mode pt := (MiniJS.sout ij mode pt denv (fun _ _ => None)).
Local Notation js_exec := (MiniJS.js_exec (fun _ _ _ => OutOfModel)).
Local Notation sim c := (MiniJSSim.sim c (cc_nocalls denv)).

(* the bytes the statements denote, in order, in one environment (raw text and prints bind nothing) *)
Fixpoint stmts_text (mode : N) (env : bstr -> option value) (ss : list cstmt) : option bstr :=
  match ss with
  | [] => Some []
  | s :: r =>
      match sout (c_ij cf) mode go_print_text env s, stmts_text mode env r with
      | Some (t, _), Some t2 => Some (t ++ t2)
      | _, _ => None
      end
  end.

Definition stmts_js (mode : N) (buf : bstr) (sc : list (list (bstr * bstr))) (n : N) (ss : list cstmt) : list jstmt :=
  map (fun s => fst (sgen mode buf sc n s)) ss.

Fixpoint js_exec_seq (je : jenv) (js : list jstmt) : outcome jenv :=
  match js with
  | [] => Ok je
  | j :: r => match js_exec je j with Ok je1 => js_exec_seq je1 r | other => other end
  end.

Definition plain (s : cstmt) : Prop := (exists t, s = SRaw t) \/ (exists e ds, s = SPrint e ds).

Lemma sout_plain_ext mode env1 env2 s : plain s -> (forall k, env1 k = env2 k) ->
  forall t e', sout (c_ij cf) mode go_print_text env1 s = Some (t, e') ->
  exists e'', sout (c_ij cf) mode go_print_text env2 s = Some (t, e'') /\ e' = env1.
Proof.
  intros [[t0 ->]|[e [ds ->]]] Hext t e' E.
  - rewrite sout_raw in *. inversion E; subst. eauto.
  - rewrite sout_print in *. rewrite <- (ceval_ext (c_ij cf) env1 env2 Hext).
    destruct (ceval (c_ij cf) env1 e) as [v|]; [|discriminate]. destruct (scalar_string v) as [str|]; [|discriminate].
    destruct (cleanb str); [|discriminate]. inversion E; subst. eauto.
Qed.

Lemma stmts_text_ext mode env1 env2 ss : Forall plain ss -> (forall k, env1 k = env2 k) ->
  stmts_text mode env1 ss = stmts_text mode env2 ss.
Proof.
  intros Hp Hext. induction Hp as [|s r Hs _ IH]; [reflexivity|]. cbn [stmts_text]. rewrite IH.
  destruct (sout (c_ij cf) mode go_print_text env1 s) as [[t e']|] eqn:E1.
  - destruct (sout_plain_ext mode env1 env2 s Hs Hext t e' E1) as (e'' & E2 & _). rewrite E2. reflexivity.
  - destruct (sout (c_ij cf) mode go_print_text env2 s) as [[t e']|] eqn:E2; [|reflexivity].
    destruct (sout_plain_ext mode env2 env1 s Hs (fun k => eq_sym (Hext k)) t e' E2) as (e'' & E3 & _). congruence.
Qed.

Lemma items_plain items ss : Forall2 item_stmt items ss -> Forall plain ss.
Proof. induction 1 as [|? ? ? ? Hi _ IH]; constructor; [|exact IH]. destruct Hi; [left|right|left]; eauto. Qed.

(* THE THREE SIDES of a piece of code: the Go action [m] writes [text]; the statements [js], executed in order, append
   it to the buffer variable; the generator action [gj] emits their chunks; the three states are related again, and
   what the generator's state keeps (indent, buffer, scope, counter) and the Go side's mode and scope are as before *)
Definition sides {A} (m : M A) (gj : J unit) (js : list jstmt) (text : bstr)
    (st : mstate) (je : jenv) (jst : jstate) (old : bstr) : Prop :=
  exists x st' ws je' jst',
    (* Go *)  m st = (Ok x, st') /\ wrote st st' ws /\ concat_b ws = text
              /\ mode st' = mode st /\ (forall k, sc_lookup (ctx st') k = sc_lookup (ctx st) k)
    (* JS *)  /\ js_exec_seq je js = Ok je'
    (* Gen *) /\ gj jst = Ok (tt, jst')
              /\ j_out jst' = rev (flat_map (sprint (j_indent jst)) js) ++ j_out jst
              /\ j_indent jst' = j_indent jst /\ j_buf jst' = j_buf jst /\ j_scope jst' = j_scope jst /\ j_n jst' = j_n jst
    /\ sim cf st' je' jst' (old ++ text) /\ lvok lv (j_scope jst').

Lemma sides_ret st je jst old : sim cf st je jst old -> lvok lv (j_scope jst) -> sides (ret tt) (jret tt) [] [] st je jst old.
Proof.
  intros Hsim Hlv. exists tt, st, [], je, jst. cbn [js_exec_seq flat_map rev app]. rewrite app_nil_r.
  split; [reflexivity|]. split; [apply wsame_wrote, wsame_refl|]. repeat (split; [reflexivity|]). split; [exact Hsim|exact Hlv].
Qed.

Lemma sides_cons {A} (m1 : M A) (m2 : M unit) g1 g2 j js t1 t2 st je jst old :
  sides m1 g1 [j] t1 st je jst old ->
  (forall st1 je1 jst1, mode st1 = mode st -> (forall k, sc_lookup (ctx st1) k = sc_lookup (ctx st) k) ->
     j_indent jst1 = j_indent jst -> j_buf jst1 = j_buf jst -> j_scope jst1 = j_scope jst -> j_n jst1 = j_n jst ->
     sim cf st1 je1 jst1 (old ++ t1) -> lvok lv (j_scope jst1) -> sides m2 g2 js t2 st1 je1 jst1 (old ++ t1)) ->
  sides (_ <-- m1 ;;; m2) (g1 ;;; g2) (j :: js) (t1 ++ t2) st je jst old.
Proof.
  intros (x & st1 & ws1 & je1 & jst1 & Ego & W1 & C1 & M1 & A1 & Ej & Eg & Og & I3 & B3 & S3 & N3 & Hsim1 & Hlv1) Hk.
  destruct (Hk st1 je1 jst1 M1 A1 I3 B3 S3 N3 Hsim1 Hlv1)
    as (y & st2 & ws2 & je2 & jst2 & Ego2 & W2 & C2 & M2 & A2 & Ej2 & Eg2 & Og2 & I4 & B4 & S4 & N4 & Hsim2 & Hlv2).
  exists y, st2, (ws1 ++ ws2), je2, jst2.
  split; [unfold mbind; rewrite Ego; exact Ego2|].
  split; [exact (wrote_trans _ _ _ _ _ W1 W2)|].
  split; [rewrite <- C1, <- C2; apply BytesBase.concat_b_app|].
  split; [congruence|]. split; [intro k; rewrite A2, A1; reflexivity|].
  split. { cbn [js_exec_seq] in Ej |- *. destruct (js_exec je j); try discriminate. injection Ej as ->. exact Ej2. }
  split; [rewrite (jbind_ok _ _ _ _ _ Eg); exact Eg2|].
  split. { cbn [flat_map] in Og |- *. rewrite Og2, Og, I3, app_nil_r, rev_app_distr, app_assoc. reflexivity. }
  repeat (split; [congruence|]). split; [rewrite app_assoc; exact Hsim2|exact Hlv2].
Qed.

(* one statement [s] of C04's subset that binds nothing, generated as [j]: given what the Go action and the generator
   action do, the JavaScript side is C04's js_exec_stmt and the three states are related again *)
Lemma sides_stmt {A} (m : M A) gj s j text st je jst old x st1 ws :
  sim cf st je jst old -> lvok lv (j_scope jst) ->
  sout (c_ij cf) (mode st) go_print_text (sc_lookup (ctx st)) s = Some (text, sc_lookup (ctx st)) ->
  sgen (mode st) (j_buf jst) (j_scope jst) (j_n jst) s = (j, (j_scope jst, j_n jst)) ->
  m st = (Ok x, st1) -> wrote st st1 ws -> concat_b ws = text -> mode st1 = mode st ->
  (forall k, sc_lookup (ctx st1) k = sc_lookup (ctx st) k) -> dinv denv (ctx st1) ->
  gres o gj jst (sprint (j_indent jst) j) (j_indent jst) (j_buf jst) (j_auto jst) (j_scope jst) (j_n jst) ->
  sides m gj [j] text st je jst old.
Proof.
  intros (Hg & _ & ER & DR & G & Hbuf & Hmode) Hlv E Eg Em W1 C1 M1 A1 D1 (jst1 & Ej & Og & (I3 & B3 & A3 & S3 & N3) & _).
  cbn [cc_nocalls cc_denv] in DR.
  destruct (js_exec_stmt (c_ij cf) (mode st) denv (fun _ _ => None) (fun _ _ _ => OutOfModel) (j_buf jst) s (j_scope jst) (j_n jst)
              (sc_lookup (ctx st)) je old text _ j _ _ (nocallee_js _ _) G E ER Hbuf DR Eg)
    as (je1 & Ee & (ER1 & Hbuf1) & (Dj1 & _)).
  exists x, st1, ws, je1, jst1. cbn [js_exec_seq flat_map]. rewrite Ee, app_nil_r.
  split; [exact Em|]. split; [exact W1|]. split; [exact C1|]. split; [exact M1|]. split; [exact A1|].
  split; [reflexivity|]. split; [exact Ej|]. split; [exact Og|]. split; [exact I3|]. split; [exact B3|]. split; [exact S3|]. split; [exact N3|].
  split; [|rewrite S3; exact Hlv].
  unfold MiniJSSim.sim. cbn [cc_nocalls cc_denv]. split; [exact (wrote_wok _ _ _ W1 Hg)|]. split; [exact D1|].
  split; [rewrite S3; eapply env_rel_ext; [|exact ER1]; intro k; symmetry; apply A1|]. split; [rewrite Dj1; exact DR|].
  split; [rewrite S3, N3, B3; exact G|]. split; [rewrite B3; exact Hbuf1|congruence].
Qed.

(* code that writes the literal [t] and leaves the scopes alone, against the append-literal statement: a text segment
   of the translation and an html tag of the message *)
Lemma sides_raw {A} (m : M A) gj t st je jst old x st1 :
  sim cf st je jst old -> lvok lv (j_scope jst) ->
  m st = (Ok x, st1) -> wrote st st1 [t] -> ctx st1 = ctx st -> mode st1 = mode st ->
  gres o gj jst (sprint (j_indent jst) (JSAppendLit (j_buf jst) t)) (j_indent jst) (j_buf jst) (j_auto jst) (j_scope jst) (j_n jst) ->
  sides m gj [JSAppendLit (j_buf jst) t] t st je jst old.
Proof.
  intros Hsim Hlv Em W1 C1 M1. apply (sides_stmt m gj (SRaw t) _ t st je jst old x st1 [t] Hsim Hlv); try assumption; try reflexivity.
  - cbn [concat_b]. apply app_nil_r.
  - intro k. rewrite C1. reflexivity.
  - rewrite C1. exact (proj1 (proj2 Hsim)).
Qed.

Lemma sides_text t st je jst old : sim cf st je jst old -> lvok lv (j_scope jst) ->
  sides (write t) (write_raw_text t) [JSAppendLit (j_buf jst) t] t st je jst old.
Proof.
  intros Hsim Hlv. destruct (write_wok t st (proj1 Hsim)) as (st1 & Ew & W1 & C1 & M1).
  exact (sides_raw _ _ t st je jst old tt st1 Hsim Hlv Ew W1 C1 M1 (gres_raw_text o t jst _ _ _ _ _ (shape_refl jst))).
Qed.

Lemma sides_tag fuel q t st je jst old : (0 < fuel)%nat -> sim cf st je jst old -> lvok lv (j_scope jst) ->
  sides (walk_b cf plural_index bd fuel (NMsgHtmlTag q t)) (jwalk o fuel (NMsgHtmlTag q t)) [JSAppendLit (j_buf jst) t] t st je jst old.
Proof.
  intros Hf Hsim Hlv. destruct fuel as [|f]; [lia|].
  assert (Hg0 : wok (set_cur st q)) by (destruct st; exact (proj1 Hsim)).
  destruct (write_wok t (set_cur st q) Hg0) as (st1 & Ew & W1 & C1 & M1).
  eapply (sides_raw _ _ t st je jst old _ st1 Hsim Hlv).
  - rewrite (walk_b_is_walk cf plural_index bd (S f) (NMsgHtmlTag q t) eq_refl st), walk_unfold. cbn [walk_node pos_of].
    unfold mbind. rewrite Ew. reflexivity.
  - exact (wrote_l _ _ _ _ (pres_wsame _ _ (pres_set_cur st q)) W1).
  - rewrite C1. destruct st; reflexivity.
  - rewrite M1. destruct st; reflexivity.
  - exact (gres_walk o f (NMsgHtmlTag q t) jst _ _ _ _ _ _ _ _ _ _ _ eq_refl (shape_refl jst)
             (fun st1 H1 => gres_raw_text o t st1 _ _ _ _ _ H1)).
Qed.

(* a placeholder that is a core print: the Go side is C04's interp_all, the generator's side its sgen_print_print *)
Lemma sides_print fuel e ds st je jst old text env' :
  c_oblig cf = [] -> (sdepth (SPrint e ds) < fuel)%nat -> sim cf st je jst old ->
  swf lv (SPrint e ds) = true -> lvok lv (j_scope jst) ->
  sout (c_ij cf) (mode st) go_print_text (sc_lookup (ctx st)) (SPrint e ds) = Some (text, env') ->
  sides (walk_b cf plural_index bd fuel (snode (SPrint e ds))) (jwalk o fuel (snode (SPrint e ds)))
        [fst (sgen (mode st) (j_buf jst) (j_scope jst) (j_n jst) (SPrint e ds))] text st je jst old.
Proof.
  intros Hob Hf Hsim Hwf Hlv E. pose proof Hsim as (Hg & Hd & ER & _ & G & _ & Hmode). cbn [cc_nocalls cc_denv] in Hd.
  assert (Henv : env' = sc_lookup (ctx st)).
  { rewrite sout_print in E. destruct (ceval _ _ e) as [v|]; [|discriminate]. destruct (scalar_string v); [|discriminate].
    destruct (cleanb _); [|discriminate]. inversion E; reflexivity. }
  subst env'.
  assert (Hc : envok (sc_lookup (ctx st))).
  { intros k x Hk. pose proof (er_core _ _ _ _ ER k) as H. unfold env_val in H. rewrite Hk in H. exact H. }
  assert (Hij : forall x, c_ij cf = Some x -> core_value x = true) by (intros x Hx; exact (er_core_ij _ _ _ _ ER x Hx)).
  destruct (proj1 (interp_all cf Hob Hij denv Hdenv (fun _ _ => None) 0%nat (nocallee_go cf)) (SPrint e ds) fuel st text _ _
              Hf Hg (dinv_nonempty _ _ Hd) (conj (fun k => eq_refl) Hd) Hc E)
    as (st' & ws & rv & E1 & W1 & C1 & M1 & _ & _ & A1 & D1).
  apply (sides_stmt _ _ (SPrint e ds) _ text st je jst old rv st' ws Hsim Hlv E); try assumption.
  - rewrite sgen_print_eq. reflexivity.
  - rewrite (walk_b_is_walk cf plural_index bd fuel _ (msgfree_print e ds) st). exact E1.
  - apply (sgen_print_print o e ds lv fuel jst _ (j_scope jst) (j_n jst) _ _ _ _ _ Hf (gi_nonempty _ _ _ G) Hlv Hwf (shape_refl jst)).
    rewrite Hmode, sgen_print_eq. reflexivity.
Qed.

Theorem three_sided_items fuel : forall items ss, Forall2 item_stmt items ss ->
  forall st je jst old text,
  c_oblig cf = [] -> Forall (fun s => (sdepth s < fuel)%nat) ss -> Forall (fun s => swf lv s = true) ss ->
  sim cf st je jst old -> lvok lv (j_scope jst) ->
  stmts_text (mode st) (sc_lookup (ctx st)) ss = Some text ->
  sides (run_items (walk_b cf plural_index bd fuel) items) (jrun_items (jwalk o fuel) items)
        (stmts_js (mode st) (j_buf jst) (j_scope jst) (j_n jst) ss) text st je jst old.
Proof.
  intros items ss H. induction H as [|it s items ss His Hrest IH]; intros st je jst old text Hob Hd Hw Hsim Hlv Ht.
  - cbn [stmts_text] in Ht. injection Ht as <-. apply sides_ret; assumption.
  - inversion Hd as [|? ? Hd1 Hd2]; subst. inversion Hw as [|? ? Hw1 Hw2]; subst.
    cbn [stmts_text] in Ht.
    destruct (sout (c_ij cf) (mode st) go_print_text (sc_lookup (ctx st)) s) as [[t1 env1]|] eqn:E1; [|discriminate].
    destruct (stmts_text (mode st) (sc_lookup (ctx st)) ss) as [t2|] eqn:E2; [|discriminate]. injection Ht as <-.
    assert (Hk : forall st1 je1 jst1, mode st1 = mode st -> (forall k, sc_lookup (ctx st1) k = sc_lookup (ctx st) k) ->
              j_indent jst1 = j_indent jst -> j_buf jst1 = j_buf jst -> j_scope jst1 = j_scope jst -> j_n jst1 = j_n jst ->
              sim cf st1 je1 jst1 (old ++ t1) -> lvok lv (j_scope jst1) ->
              sides (run_items (walk_b cf plural_index bd fuel) items) (jrun_items (jwalk o fuel) items)
                    (stmts_js (mode st) (j_buf jst) (j_scope jst) (j_n jst) ss) t2 st1 je1 jst1 (old ++ t1)).
    { intros st1 je1 jst1 M1 A1 _ B3 S3 N3 Hsim1 Hlv1. rewrite <- M1, <- B3, <- S3, <- N3. apply IH; try assumption.
      rewrite M1, (stmts_text_ext (mode st) _ _ ss (items_plain _ _ Hrest) A1). exact E2. }
    cbn [stmts_js map].
    destruct His as [t|p n e ds|p n q t]; cbn [run_items jrun_items]; apply sides_cons; try exact Hk.
    + rewrite sout_raw in E1. injection E1 as <- _. apply sides_text; assumption.
    + apply (sides_print fuel e ds st je jst old t1 env1); assumption.
    + rewrite sout_raw in E1. injection E1 as <- _. apply sides_tag; [cbn [sdepth] in Hd1; lia|assumption|assumption].
Qed.

(* ... and the message itself: soyhtml's evalMsg and soyjs's visitMsgNode for a flat message whose catalogue
   entry is the translation tr, when every slot of tr resolves to a core print *)
Theorem three_sided_translation fuel mp id body tr msgs ss :
  forallb flat_node body = true -> items_named body tr -> parts_clean (map item_part tr) ->
  bundle_message bd id = Some (new_message [] [msgstr_of tr]) ->
  o_msgs o = Some msgs -> assoc_n id msgs = Some (jparts_of_cmsg (new_message [] [msgstr_of tr])) ->
  Forall2 item_stmt (map (resolve body) tr) ss ->
  forall st je jst old text,
  c_oblig cf = [] -> Forall (fun s => (sdepth s < fuel)%nat) ss -> Forall (fun s => swf lv s = true) ss ->
  sim cf st je jst old -> lvok lv (j_scope jst) ->
  stmts_text (mode st) (sc_lookup (ctx st)) ss = Some text ->
  exists st' ws je' jst',
    let js := stmts_js (mode st) (j_buf jst) (j_scope jst) (j_n jst) ss in
    eval_msg plural_index bd (walk_b cf plural_index bd fuel) mp id body st = (Ok tt, st') /\ wrote st st' ws /\ concat_b ws = text
    /\ js_exec_seq je js = Ok je'
    /\ visit_msg o (jwalk o fuel) id body jst = Ok (tt, jst')
    /\ j_out jst' = rev (flat_map (sprint (j_indent jst)) js) ++ j_out jst
    /\ sim cf st' je' jst' (old ++ text) /\ lvok lv (j_scope jst').
Proof.
  intros Hflat Hnamed Hclean Hbd Ho Ha Hit st je jst old text Hob Hd Hw Hsim Hlv Ht.
  rewrite (translation_places_values plural_index bd _ mp id body tr Hflat Hnamed Hclean Hbd).
  rewrite (js_translation_places_values o _ id body tr msgs Hflat Hnamed Hclean Ho Ha).
  destruct (three_sided_items fuel _ _ Hit st je jst old text Hob Hd Hw Hsim Hlv Ht)
    as ([] & st' & ws & je' & jst' & E1 & W & C & _ & _ & Ej & Eg & Og & _ & _ & _ & _ & Hs & Hl).
  exists st', ws, je', jst'. repeat (split; [assumption|]). assumption.
Qed.

End Three.
