(* C04, the print stage with escaping: {print e|d1|d2...} for the directives
   id, noAutoescape, escapeHtml, under any autoescape mode. *)
From Soy Require Import Model.Bytes Model.Num Model.Values Model.Outcome Model.Ast Model.JsGen Model.MiniJS
  Model.Escape Model.Directives Model.Print Generated.Tables Model.Interp
  Proofs.EscapeProofs Proofs.MiniJSProofs Proofs.MiniJSPrint.
Open Scope N_scope.

(* ---- the three texts ---- *)
(* go_dir_text / go_dirs_text / go_print_text (what the Go renderer writes) are in Model/MiniJS.v *)

Definition js_dir_text (d : pdir) (s : bstr) : bstr := match d with PEscapeHtml => js_escape_html s | _ => s end.
Fixpoint js_dirs_text (ds : list pdir) (s : bstr) : bstr :=
  match ds with [] => s | d :: r => js_dirs_text r (js_dir_text d s) end.
Definition js_print_text (mode : N) (ds : list pdir) (s : bstr) : bstr :=
  match ds with [] => if mode =? 2 then s else js_escape_html s | _ => js_dirs_text ds s end.

(* a text on which the two escapers agree: no NUL and no double quote
   (finding quote-entity: &#34; against &quot;; NUL: U+FFFD / untouched against &#0;) *)
Definition clean (s : bstr) : Prop := Forall (fun c => c <> 0 /\ c <> 34) s.

Lemma entity_agree c : c <> 0 -> c <> 34 -> js_html_entity c = html_entity c /\ js_html_entity c = tmpl_entity c.
Proof.
  intros H0 H34. unfold js_html_entity, html_entity, tmpl_entity.
  replace (c =? 0) with false by (symmetry; apply N.eqb_neq; exact H0).
  replace (c =? 34) with false by (symmetry; apply N.eqb_neq; exact H34).
  cbn [assoc html_entity_table].
  replace (c =? 34) with false by (symmetry; apply N.eqb_neq; exact H34).
  destruct (N.eqb_spec c 38) as [->|N38]; [split; reflexivity|].
  destruct (N.eqb_spec c 39) as [->|N39]; [split; reflexivity|].
  destruct (N.eqb_spec c 60) as [->|N60]; [split; reflexivity|].
  destruct (N.eqb_spec c 62) as [->|N62]; split; reflexivity.
Qed.

Lemma entity_clean c e : js_html_entity c = Some e -> clean e.
Proof.
  unfold js_html_entity. repeat (destruct (c =? _); [intro H; inversion H; subst; repeat constructor; discriminate|]). discriminate.
Qed.

Lemma js_escape_clean s : clean s -> js_escape_html s = html_escape s /\ js_escape_html s = tmpl_html_escape s /\ clean (js_escape_html s).
Proof.
  rewrite html_escape_is_flat. induction 1 as [|c r [H0 H34] Hr IH]; cbn [js_escape_html html_escape_flat tmpl_html_escape].
  - repeat split; constructor.
  - destruct IH as (I1 & I2 & I3). destruct (entity_agree c H0 H34) as [A1 A2]. rewrite <- A1, <- A2.
    destruct (js_html_entity c) as [e|] eqn:Ee.
    + split; [rewrite I1; reflexivity|]. split; [rewrite I2; reflexivity|]. apply Forall_app. split; [exact (entity_clean c e Ee)|exact I3].
    + split; [rewrite I1; reflexivity|]. split; [rewrite I2; reflexivity|]. constructor; auto.
Qed.

Lemma dirs_text_agree ds : forall s, clean s -> js_dirs_text ds s = go_dirs_text ds s /\ clean (js_dirs_text ds s).
Proof.
  induction ds as [|d r IH]; intros s Hc; cbn [js_dirs_text go_dirs_text]. auto.
  destruct d; cbn [js_dir_text go_dir_text]; try (apply IH; exact Hc).
  destruct (js_escape_clean s Hc) as (_ & E2 & C). rewrite <- E2. apply IH. exact C.
Qed.

(* on clean text the two backends print the same bytes *)
Theorem print_text_agree mode ds s : clean s -> js_print_text mode ds s = go_print_text mode ds s.
Proof.
  intro Hc. unfold js_print_text, go_print_text. destruct ds as [|d r].
  - destruct (mode =? 2); [reflexivity|]. exact (proj1 (js_escape_clean s Hc)).
  - exact (proj1 (dirs_text_agree (d :: r) s Hc)).
Qed.

(* ---- the JavaScript side ---- *)
Lemma js_wrap_escapes je ds : forall x jv s, js_eval je x = Ok jv -> js_tostring jv = Some s ->
  exists jv', js_eval je (wrap_escapes ds x) = Ok jv' /\ js_tostring jv' = Some (js_dirs_text ds s).
Proof.
  induction ds as [|d r IH]; intros x jv s Hx Ht; cbn [wrap_escapes js_dirs_text]. eauto.
  destruct d; cbn [js_dir_text]; try solve [eapply IH; eauto].
  apply (IH (JEEscapeHtml x) (JStr (js_escape_html s))). cbn [js_eval]. rewrite Hx. cbn [bind]. rewrite Ht. reflexivity. reflexivity.
Qed.

Lemma js_print_expr je mode ds x jv s : js_eval je x = Ok jv -> js_tostring jv = Some s ->
  exists jv', js_eval je (cgen_print_expr mode ds x) = Ok jv' /\ js_tostring jv' = Some (js_print_text mode ds s).
Proof.
  intros Hx Ht. unfold cgen_print_expr, js_print_text. destruct (js_wrap_escapes je ds x jv s Hx Ht) as (jv1 & E1 & T1).
  destruct ds as [|d r]; [|eauto]. cbn [wrap_escapes js_dirs_text] in *. destruct (mode =? 2); [eauto|].
  exists (JStr (js_escape_html s)). cbn [js_eval]. rewrite E1. cbn [bind]. rewrite T1. split; reflexivity.
Qed.

(* ---- the Go side ---- *)
Lemma ld_subset d : exists fn, lookup_directive (pdir_name d) = Some ([0], (true, (false, fn)))
                               /\ forall s, apply_fn fn [] s = Ok (go_dir_text d s).
Proof. destruct d; eexists; (split; [vm_compute; reflexivity|intro s; reflexivity]). Qed.

Lemma print_dirs_subset cf w ds v s st : c_oblig cf = [] -> value_string v = Ok s ->
  print_dirs cf w (map pdir_node ds) v st = (Ok (map (fun d => (pdir_name d, @nil darg)) ds), st).
Proof.
  intro Hob. revert v s st. induction ds as [|d r IH]; intros v s st Hv; cbn [map print_dirs pdir_node].
  - rewrite Hob. reflexivity.
  - destruct (ld_subset d) as (fn & Hl & Hf). rewrite Hl. cbn [check_num_args length mem existsb negb N.of_nat].
    change (0 =? 0) with true. cbn [orb negb]. unfold mbind at 1. cbn [eval_list ret].
    unfold mbind at 1. rewrite Hv. cbn [lift].
    unfold mbind at 1. unfold print_writes. cbn [map apply_directives]. rewrite Hl.
    cbn [check_num_args length mem existsb negb N.of_nat]. change (0 =? 0) with true. cbn [orb negb].
    rewrite Hf. cbn [bind lift].
    change (negb (2 =? 2) && false) with false. cbn iota.
    unfold mbind at 1. rewrite (IH (VStr (concat_b [go_dir_text d s])) (concat_b [go_dir_text d s]) st eq_refl). reflexivity.
Qed.

Lemma apply_directives_subset ds : forall s esc,
  apply_directives (map (fun d => (pdir_name d, @nil darg)) ds) s esc
  = Ok (go_dirs_text ds s, match ds with [] => esc | _ => false end).
Proof.
  induction ds as [|d r IH]; intros s esc; cbn [map apply_directives go_dirs_text]. reflexivity.
  destruct (ld_subset d) as (fn & Hl & Hf). rewrite Hl. cbn [check_num_args length mem existsb negb N.of_nat].
  change (0 =? 0) with true. cbn [orb negb]. rewrite Hf. cbn [bind]. rewrite IH. rewrite andb_false_r. destruct r; reflexivity.
Qed.

(* ---- the writer in general: the innermost capture buffer of renderBlock, or the output ---- *)
(* it does not fail: a capture buffer never does; the output does not when it has no budget of calls or bytes *)
Definition wok (st : mstate) : Prop :=
  match bufs st with [] => calls_left st = None /\ bytes_left st = None | _ => True end.
(* st' is st after the writes ws (in order) *)
Definition wrote (st st' : mstate) (ws : list bstr) : Prop :=
  calls_left st' = calls_left st /\ bytes_left st' = bytes_left st /\
  match bufs st with
  | [] => bufs st' = [] /\ out st' = rev ws ++ out st
  | b :: rest => bufs st' = (rev ws ++ b) :: rest /\ out st' = out st
  end.
(* nothing written, the writer untouched *)
Definition wsame (st st' : mstate) : Prop :=
  out st' = out st /\ bufs st' = bufs st /\ calls_left st' = calls_left st /\ bytes_left st' = bytes_left st.

Lemma pres_wsame st st' : pres st st' -> wsame st st'.
Proof. intros (_ & _ & O & B & C & Y). repeat split; assumption. Qed.
Lemma wsame_refl st : wsame st st. Proof. repeat split. Qed.
Lemma wsame_trans a c d : wsame a c -> wsame c d -> wsame a d.
Proof. intros (A1 & A2 & A3 & A4) (B1 & B2 & B3 & B4). repeat split; congruence. Qed.
Lemma wsame_wrote st st' : wsame st st' -> wrote st st' [].
Proof. intros (O & B & C & Y). unfold wrote. rewrite C, Y. split; [reflexivity|]. split; [reflexivity|]. destruct (bufs st); cbn; auto. Qed.
Lemma wrote_l a c d ws : wsame a c -> wrote c d ws -> wrote a d ws.
Proof. intros (O & B & C & Y) (H1 & H2 & H3). unfold wrote. rewrite <- B, <- O, <- C, <- Y. auto. Qed.
Lemma wrote_r a c d ws : wrote a c ws -> wsame c d -> wrote a d ws.
Proof.
  intros (H1 & H2 & H3) (O & B & C & Y). unfold wrote. rewrite O, B, C, Y. auto.
Qed.
Lemma wrote_trans a c d ws1 ws2 : wrote a c ws1 -> wrote c d ws2 -> wrote a d (ws1 ++ ws2).
Proof.
  intros (A1 & A2 & A3) (B1 & B2 & B3). unfold wrote. split; [congruence|]. split; [congruence|].
  destruct (bufs a) as [|b rest].
  - destruct A3 as [A3 A4]. rewrite A3 in B3. destruct B3 as [B3 B4]. split; [exact B3|]. rewrite B4, A4, rev_app_distr, app_assoc. reflexivity.
  - destruct A3 as [A3 A4]. rewrite A3 in B3. destruct B3 as [B3 B4]. split; [rewrite B3, rev_app_distr, app_assoc; reflexivity|congruence].
Qed.
Lemma wrote_wok st st' ws : wrote st st' ws -> wok st -> wok st'.
Proof.
  intros (C & Y & H) W. unfold wok in *. destruct (bufs st) as [|b rest].
  - destruct H as [H _]. rewrite H, C, Y. exact W.
  - destruct H as [H _]. rewrite H. exact I.
Qed.
Lemma wsame_wok st st' : wsame st st' -> wok st -> wok st'.
Proof. intros H. apply (wrote_wok st st' []). apply wsame_wrote; exact H. Qed.
(* the special case of the output *)
Lemma wrote_out st st' ws : bufs st = [] -> wrote st st' ws -> bufs st' = [] /\ out st' = rev ws ++ out st.
Proof. intros Hb (_ & _ & H). rewrite Hb in H. exact H. Qed.

Lemma write_wok w st : wok st -> exists st', write w st = (Ok tt, st') /\ wrote st st' [w] /\ ctx st' = ctx st /\ mode st' = mode st.
Proof.
  unfold wok, write, wrote. destruct (bufs st) as [|b rest] eqn:Eb.
  - intros [Hc Hy]. rewrite Hc, Hy. eexists. split; [reflexivity|]. cbn. rewrite Eb. auto 10.
  - intros _. eexists. split; [reflexivity|]. cbn. auto 10.
Qed.
Lemma write_all_wok ws : forall st, wok st ->
  exists st', write_all ws st = (Ok tt, st') /\ wrote st st' ws /\ ctx st' = ctx st /\ mode st' = mode st.
Proof.
  induction ws as [|w r IH]; intros st W; cbn [write_all].
  - exists st. split; [reflexivity|]. split; [apply wsame_wrote, wsame_refl|auto].
  - destruct (write_wok w st W) as (st1 & E1 & W1 & C1 & M1). unfold mbind at 1. rewrite E1.
    destruct (IH st1 (wrote_wok _ _ _ W1 W)) as (st2 & E2 & W2 & C2 & M2).
    exists st2. split; [exact E2|]. split; [exact (wrote_trans _ _ _ [w] r W1 W2)|split; congruence].
Qed.

(* the Write calls of {print e|ds}: the autoescaper writes piece by piece *)
Definition go_print_writes (mode : N) (ds : list pdir) (s : bstr) : list bstr :=
  match ds with [] => if mode =? 2 then [s] else esc_writes [] s | _ => [go_dirs_text ds s] end.
Lemma go_print_writes_text mode ds s : concat_b (go_print_writes mode ds s) = go_print_text mode ds s.
Proof. unfold go_print_writes, go_print_text. destruct ds; [destruct (mode =? 2)|]; try reflexivity; cbn; apply app_nil_r. Qed.

(* the Go side: {print e|ds} writes go_print_text of String() of the value, to any writer that does not fail *)
Lemma interp_print_dirs_w cf e ds fuel st v s :
  c_oblig cf = [] -> wok st ->
  (forall k x, sc_lookup (ctx st) k = Some x -> core_value x = true) ->
  (forall x, c_ij cf = Some x -> core_value x = true) ->
  (S (cdepth e) < fuel)%nat ->
  ceval (c_ij cf) (sc_lookup (ctx st)) e = Some v -> v <> VUndef -> value_string v = Ok s ->
  exists st', walk cf fuel (NPrint 0 (cnode e) (map pdir_node ds)) st = (Ok VUndef, st')
              /\ wrote st st' (go_print_writes (mode st) ds s) /\ ctx st' = ctx st /\ mode st' = mode st.
Proof.
  intros Hob W Hce Hci Hf E Hv Hs.
  destruct fuel as [|f]; [lia|]. cbn [walk]. unfold walk_body. unfold mbind at 1. cbn [modify].
  set (st1 := set_cur st (pos_of (NPrint 0 (cnode e) (map pdir_node ds)))).
  assert (P1 : pres st st1) by apply pres_set_cur.
  destruct (interp_ceval cf st Hce Hci e f st1 v ltac:(lia) (pres_ctx _ _ P1) E) as (st2 & E2 & P2).
  pose proof (pres_trans _ _ _ P1 P2) as P. pose proof P as (C & Mo & Ou & Bu & Cl & Bl).
  cbn [walk_node]. unfold mbind at 1. rewrite E2.
  assert (Hw : print_writes (mode st2) (map (fun d => (pdir_name d, @nil darg)) ds) s = Ok (go_print_writes (mode st) ds s)).
  { unfold print_writes. rewrite apply_directives_subset. cbn [bind]. unfold go_print_writes. rewrite Mo.
    destruct ds as [|d r]; [cbn [go_dirs_text]; destruct (mode st =? 2)|]; reflexivity. }
  destruct (write_all_wok (go_print_writes (mode st) ds s) st2 (wsame_wok _ _ (pres_wsame _ _ P) W)) as (st3 & E3 & W3 & C3 & M3).
  assert (Hrest : (dsx <-- print_dirs cf (walk cf f) (map pdir_node ds) v;;;
                   s0 <-- lift (value_string v);;;
                   stx <-- get;;;
                   wsx <-- lift (print_writes (mode stx) dsx s0);;; _ <-- write_all wsx;;; ret VUndef) st2
                  = (Ok VUndef, st3)).
  { unfold mbind at 1. rewrite (print_dirs_subset cf (walk cf f) ds v s st2 Hob Hs). unfold mbind at 1. rewrite Hs. cbn [lift].
    unfold mbind at 1. cbn [get]. unfold mbind at 1. rewrite Hw. cbn [lift]. unfold mbind at 1. rewrite E3. reflexivity. }
  exists st3. split; [destruct v; try congruence; exact Hrest|].
  split; [exact (wrote_l _ _ _ _ (pres_wsame _ _ P) W3)|]. split; congruence.
Qed.

(* ---- the generator: the chunks of the print statement ---- *)
Definition is_esc (d : pdir) : bool := match d with PEscapeHtml => true | _ => false end.
Definition escs (ds : list pdir) : list (bstr * list node) := map (fun _ => (n_escapeHtml, @nil node)) (filter is_esc ds).
Fixpoint esc_n (k : nat) (x : jexpr) : jexpr := match k with O => x | S k' => JEEscapeHtml (esc_n k' x) end.
Fixpoint rep {A} (k : nat) (l : list A) : list A := match k with O => [] | S k' => l ++ rep k' l end.

Lemma esc_n_succ_r k x : esc_n k (JEEscapeHtml x) = esc_n (S k) x.
Proof. induction k as [|k IH]; [reflexivity|]. cbn [esc_n]. rewrite IH. reflexivity. Qed.
Lemma wrap_escapes_n ds : forall x, wrap_escapes ds x = esc_n (length (filter is_esc ds)) x.
Proof.
  induction ds as [|d r IH]; intro x; [reflexivity|]. destruct d; cbn [wrap_escapes filter is_esc length]; try apply IH.
  rewrite IH. apply esc_n_succ_r.
Qed.
Lemma rep_single_comm {A} k (c : A) : rep k [c] ++ [c] = [c] ++ rep k [c].
Proof. induction k as [|k IH]; [reflexivity|]. cbn [rep]. rewrite <- app_assoc, IH. reflexivity. Qed.
Lemma jprint_esc_n k x :
  jprint (esc_n k x) = rep k [CText (directive_js n_escapeHtml); CText t_lpar] ++ jprint x ++ rep k [CText t_rpar].
Proof.
  induction k as [|k IH]; cbn [esc_n rep jprint]. rewrite app_nil_r. reflexivity.
  rewrite IH. rewrite <- !app_assoc. cbn [app]. f_equal. f_equal. f_equal. f_equal.
  change (CText t_rpar :: rep k [CText t_rpar]) with ([CText t_rpar] ++ rep k [CText t_rpar]). rewrite <- rep_single_comm. reflexivity.
Qed.

Lemma set_called_same st : set_called (j_called st) st = st. Proof. destruct st; reflexivity. Qed.
Lemma set_called_twice c1 c2 st : set_called c2 (set_called c1 st) = set_called c2 st. Proof. destruct st; reflexivity. Qed.

Lemma j_out_st_out st cs : j_out (st_out st cs) = rev cs ++ j_out st. Proof. destruct st; reflexivity. Qed.
Lemma j_out_st_after st cs : j_out (st_after st cs) = rev cs ++ j_out st. Proof. destruct st; reflexivity. Qed.
Lemma buf_out st cs : j_buf (st_out st cs) = j_buf st. Proof. destruct st; reflexivity. Qed.

(* the formatter of the generator's options writes no import line for a call or a directive (the ES5 formatter: its
   Call / Directive methods return an empty import; the ES6 formatter returns  import { f } from 'f.js';) *)
Definition c04_imp_free (o : jopts) : Prop :=
  forall name, fmt_chunks (fmt_call_text (o_fmt o)) name = [] /\ fmt_chunks (fmt_directive (o_fmt o)) name = [].
Lemma c04_imp_free_es5 o : o_fmt o = ES5 -> c04_imp_free o.
Proof. intros E name. rewrite E. split; reflexivity. Qed.

Section PrintChunks.
Variable o : jopts.

Lemma print_scan_subset ds : forall escape kept st,
  exists c, print_scan o (map pdir_node ds) escape kept st
            = Ok ((match ds with [] => escape | _ => 2 end, kept ++ escs ds), set_called c st)
            /\ (c04_imp_free o -> c = j_called st).
Proof.
  induction ds as [|d r IH]; intros escape kept st; cbn [map print_scan pdir_node].
  - exists (j_called st). rewrite set_called_same. unfold escs. cbn. rewrite app_nil_r. split; reflexivity.
  - destruct d; cbn [pdir_name].
    + (* id *) replace (assoc_s n_id js_directives) with (Some (@nil N, true)) by reflexivity. cbn iota.
      replace (bstr_eqb n_id n_id || bstr_eqb n_id n_noAutoescape) with true by reflexivity.
      destruct (IH 2 kept st) as (c & E & Hc). exists c. rewrite E. split; [destruct r; reflexivity|exact Hc].
    + replace (assoc_s n_noAutoescape js_directives) with (Some (@nil N, true)) by reflexivity. cbn iota.
      replace (bstr_eqb n_noAutoescape n_id || bstr_eqb n_noAutoescape n_noAutoescape) with true by reflexivity.
      destruct (IH 2 kept st) as (c & E & Hc). exists c. rewrite E. split; [destruct r; reflexivity|exact Hc].
    + replace (assoc_s n_escapeHtml js_directives) with (Some (directive_js n_escapeHtml, true)) by reflexivity. cbn iota.
      replace (bstr_eqb n_escapeHtml n_id || bstr_eqb n_escapeHtml n_noAutoescape) with false by reflexivity.
      replace (bstr_eqb n_escapeHtml n_changeNewlineToBr || bstr_eqb n_escapeHtml n_insertWordBreaks) with false by reflexivity.
      cbn iota.
      assert (Hn : exists c1, note_called n_escapeHtml (fmt_chunks (fmt_directive (o_fmt o)) (directive_js n_escapeHtml)) st = Ok (tt, set_called c1 st)
                              /\ (c04_imp_free o -> c1 = j_called st)).
      { unfold note_called. destruct (fmt_chunks (fmt_directive (o_fmt o)) (directive_js n_escapeHtml)) as [|ch chs] eqn:Ef.
        - exists (j_called st); rewrite set_called_same; split; reflexivity.
        - eexists. split; [reflexivity|]. intro HF. rewrite (proj2 (HF _)) in Ef. discriminate Ef. }
      destruct Hn as (c1 & Hn & Hc1). erewrite jbind_ok; [|exact Hn].
      destruct (IH 2 (kept ++ [(n_escapeHtml, [])]) (set_called c1 st)) as (c & E & Hc). exists c. split.
      * etransitivity; [exact E|]. rewrite set_called_twice.
        unfold escs. cbn [filter is_esc map]. rewrite <- app_assoc. destruct r; reflexivity.
      * intro HF. rewrite (Hc HF). rewrite <- (Hc1 HF). destruct st; reflexivity.
Qed.

Lemma print_opens_escs k st :
  print_opens (rep k [(n_escapeHtml, @nil node)]) st = Ok (tt, st_out st (rep k [CText (directive_js n_escapeHtml); CText t_lpar])).
Proof.
  revert st. induction k as [|k IH]; intro st; cbn [rep print_opens app]. rewrite st_out_nil. reflexivity.
  erewrite jbind_ok; [|apply jemit_out]. rewrite IH, st_out_out. reflexivity.
Qed.
Lemma print_closes_escs w k st :
  print_closes w (rep k [(n_escapeHtml, @nil node)]) st = Ok (tt, st_out st (rep k [CText t_rpar])).
Proof.
  revert st. induction k as [|k IH]; intro st; cbn [rep print_closes app print_args]. rewrite st_out_nil. reflexivity.
  erewrite jbind_ok; [|reflexivity]. replace (bstr_eqb n_escapeHtml n_truncate && Nat.eqb (@length node []) 1) with false by reflexivity.
  erewrite jbind_ok; [|reflexivity]. erewrite jbind_ok; [|apply jtxt_out]. rewrite IH, st_out_out. reflexivity.
Qed.
Lemma escs_rep ds : escs ds = rep (length (filter is_esc ds)) [(n_escapeHtml, @nil node)].
Proof. unfold escs. induction (filter is_esc ds) as [|d r IH]; [reflexivity|]. cbn [map length rep app]. rewrite IH. reflexivity. Qed.
Lemma rev_rep {A} k (c : A) : rev (rep k [c]) = rep k [c].
Proof. induction k as [|k IH]; [reflexivity|]. cbn [rep app rev]. rewrite IH. apply rep_single_comm. Qed.

(* the statement JsGen writes for {print e|ds}:  buf += <cgen_print_expr (autoescape mode) ds e>;
   _fr: with the frame conjunct (the import table j_called is untouched when the formatter writes no imports);
   cgen_print_dirs below is the same without it *)
Theorem cgen_print_dirs_fr e ds lv fuel st : (S (cdepth e) < fuel)%nat -> cwf lv e = true -> lvok lv (j_scope st) ->
  exists stf, jwalk o fuel (NPrint 0 (cnode e) (map pdir_node ds)) st = Ok (tt, stf)
    /\ j_out stf = rev ([CText (indent_text (j_indent st)); CName (j_buf st); CText t_pluseq]
                        ++ jprint (cgen_print_expr (j_auto st) ds (cgen (j_scope st) e)) ++ [CText t_semi_nl]) ++ j_out st
    /\ j_indent stf = j_indent st /\ j_buf stf = j_buf st /\ j_scope stf = j_scope st /\ j_auto stf = j_auto st /\ j_n stf = j_n st
    /\ (c04_imp_free o -> j_called stf = j_called st).
Proof.
  intros Hf Hwf Hlv. destruct fuel as [|f]; [lia|]. rewrite jwalk_S. cbn [soydoc_flags].
  set (st1 := jset_cur None st).
  assert (H1 : j_auto st1 = j_auto st /\ j_indent st1 = j_indent st /\ j_buf st1 = j_buf st /\ j_scope st1 = j_scope st /\ j_out st1 = j_out st /\ j_n st1 = j_n st /\ j_called st1 = j_called st)
    by (subst st1; destruct st; cbn; auto 10).
  destruct H1 as (A1 & I1 & B1 & S1 & O1 & N1 & C1). rewrite <- S1 in Hlv. rewrite <- A1, <- I1, <- B1, <- S1, <- O1, <- N1, <- C1. clearbody st1.
  cbn [jwalk_node]. unfold visit_print. erewrite jbind_ok; [|reflexivity].
  destruct (print_scan_subset ds (j_auto st1) [] st1) as (c & Es & Hc). erewrite jbind_ok; [|exact Es]. cbn [app].
  set (st2 := set_called c st1).
  assert (C2 : c04_imp_free o -> j_called st2 = j_called st1) by (intro HF; subst st2; rewrite (Hc HF); destruct st1; reflexivity).
  assert (H2 : j_auto st2 = j_auto st1 /\ j_indent st2 = j_indent st1 /\ j_buf st2 = j_buf st1 /\ j_scope st2 = j_scope st1 /\ j_out st2 = j_out st1 /\ j_n st2 = j_n st1)
    by (subst st2; destruct st1; cbn; auto 10).
  destruct H2 as (A2 & I2 & B2 & S2 & O2 & N2). rewrite <- S2 in Hlv. rewrite <- I2, <- B2, <- S2, <- O2, <- N2. clearbody st2.
  (* the directives kept: k explicit escapes, plus the implicit one *)
  set (k := length (filter is_esc ds)).
  assert (Hk : exists k', (if (match ds with [] => j_auto st1 | _ => 2 end) =? 2 then escs ds else escs ds ++ [(n_escapeHtml, [])])
                          = rep k' [(n_escapeHtml, @nil node)]
                          /\ cgen_print_expr (j_auto st1) ds (cgen (j_scope st2) e) = esc_n k' (cgen (j_scope st2) e)).
  { unfold cgen_print_expr. rewrite wrap_escapes_n, escs_rep. fold k. destruct ds as [|d r].
    - cbn [filter length] in k. subst k. cbn [rep esc_n app]. destruct (j_auto st1 =? 2). exists 0%nat. split; reflexivity. exists 1%nat. split; reflexivity.
    - change (2 =? 2) with true. cbn iota. exists k. split; reflexivity. }
  destruct Hk as (k' & Hkept & Hexpr). rewrite Hkept, Hexpr.
  unfold jindent. erewrite jbind_ok; [|erewrite jbind_ok; [apply jtxt_out|reflexivity]].
  unfold bufname. erewrite jbind_ok; [|erewrite jbind_ok; [reflexivity|reflexivity]].
  erewrite jbind_ok; [|apply jemit_out]. rewrite rev_rep.
  erewrite jbind_ok; [|apply print_opens_escs].
  erewrite jbind_ok; [|apply (cgen_print o e lv); [lia|exact Hwf|rewrite ?scope_out; exact Hlv]].
  erewrite jbind_ok; [|apply print_closes_escs].
  rewrite jtxt_out. eexists. split; [reflexivity|]. split.
  - rewrite !j_out_st_out, j_out_st_after, !j_out_st_out, !scope_out, !buf_out. rewrite jprint_esc_n.
    rewrite !app_assoc. rewrite <- !rev_app_distr. f_equal. f_equal. rewrite <- ?app_assoc. cbn [app]. reflexivity.
  - unfold st_after, st_out. destruct st2; cbn in *. repeat split; auto.
Qed.
Theorem cgen_print_dirs e ds lv fuel st : (S (cdepth e) < fuel)%nat -> cwf lv e = true -> lvok lv (j_scope st) ->
  exists stf, jwalk o fuel (NPrint 0 (cnode e) (map pdir_node ds)) st = Ok (tt, stf)
    /\ j_out stf = rev ([CText (indent_text (j_indent st)); CName (j_buf st); CText t_pluseq]
                        ++ jprint (cgen_print_expr (j_auto st) ds (cgen (j_scope st) e)) ++ [CText t_semi_nl]) ++ j_out st
    /\ j_indent stf = j_indent st /\ j_buf stf = j_buf st /\ j_scope stf = j_scope st /\ j_auto stf = j_auto st /\ j_n stf = j_n st.
Proof.
  intros Hf Hwf Hlv. destruct (cgen_print_dirs_fr e ds lv fuel st Hf Hwf Hlv) as (stf & E & O & I & B & S & A & N & _).
  exists stf. auto 10.
Qed.
End PrintChunks.

(* one {print e|ds}, both sides: the Go renderer writes go_print_text of String() of the value, the generated statement
   appends js_print_text of it *)
Lemma print_sides cf sc je st e ds fuel v s buf old :
  c_oblig cf = [] -> wok st -> (S (cdepth e) < fuel)%nat -> env_rel sc (c_ij cf) (sc_lookup (ctx st)) je ->
  ceval (c_ij cf) (sc_lookup (ctx st)) e = Some v -> printable_scalar v = true ->
  value_string v = Ok s -> js_tostring (to_js v) = Some s -> assoc_s buf (je_vars je) = Some (JStr old) ->
  (exists st', walk cf fuel (NPrint 0 (cnode e) (map pdir_node ds)) st = (Ok VUndef, st')
               /\ wrote st st' (go_print_writes (mode st) ds s) /\ ctx st' = ctx st /\ mode st' = mode st)
  /\ (exists je', js_append je buf (cgen_print_expr (mode st) ds (cgen sc e)) = Ok (js_print_text (mode st) ds s, je')
                  /\ assoc_s buf (je_vars je') = Some (JStr (old ++ js_print_text (mode st) ds s)) /\ je_data je' = je_data je).
Proof.
  intros Hob W Hf ER E Hp Hs Ht Hbuf. split.
  - apply (interp_print_dirs_w cf e ds fuel st v s Hob W (er_core_some _ _ _ _ ER) (er_core_ij _ _ _ _ ER) Hf E); [|exact Hs].
    destruct v; try discriminate; discriminate.
  - destruct (cgen_correct sc (c_ij cf) (sc_lookup (ctx st)) je ER e v E) as [Hj _].
    destruct (js_print_expr je (mode st) ds (cgen sc e) (to_js v) s Hj Ht) as (jv' & Ej & Tj).
    unfold js_append. rewrite Ej. cbn [bind]. rewrite Tj, Hbuf. eexists. split; [reflexivity|]. cbn [je_vars je_data].
    split; [apply assoc_s_aset|reflexivity].
Qed.

(* gen_correct_partial_print: one {print e} of the subset under autoescape off: the bytes the Go renderer
   writes are the text the generated statement appends to the output buffer *)
Theorem gen_correct_partial_print cf sc je st e fuel v buf old :
  c_oblig cf = [] -> mode st = 2 -> bufs st = [] -> calls_left st = None -> bytes_left st = None ->
  (S (cdepth e) < fuel)%nat ->
  env_rel sc (c_ij cf) (sc_lookup (ctx st)) je ->
  ceval (c_ij cf) (sc_lookup (ctx st)) e = Some v -> printable_scalar v = true ->
  assoc_s buf (je_vars je) = Some (JStr old) ->
  exists s,
    (exists st', walk cf fuel (NPrint 0 (cnode e) []) st = (Ok VUndef, st')
                 /\ out st' = s :: out st /\ ctx st' = ctx st /\ mode st' = mode st)
    /\ (exists je', js_append je buf (cgen sc e) = Ok (s, je')
                    /\ assoc_s buf (je_vars je') = Some (JStr (old ++ s)) /\ je_data je' = je_data je).
Proof.
  intros Hob Hm Hb Hcl Hbl Hf ER E Hp Hbuf. destruct (tostring_value_string v Hp) as (s & Hs & Ht). exists s.
  assert (W : wok st) by (unfold wok; rewrite Hb; auto).
  destruct (print_sides cf sc je st e [] fuel v s buf old Hob W Hf ER E Hp Hs Ht Hbuf) as [(st' & E1 & W1 & R) HJ]. rewrite Hm in W1, HJ.
  split; [|exact HJ]. exists st'. split; [exact E1|]. split; [exact (proj2 (wrote_out st st' _ Hb W1))|exact R].
Qed.

(* gen_correct_partial_print (with escaping): one {print e|ds}, ds over id / noAutoescape / escapeHtml,
   under any autoescape mode: the bytes the Go renderer writes are the text the generated
   statement appends, provided String() of the value contains neither NUL nor a double quote *)
Theorem gen_correct_partial_print_esc cf sc je st e ds fuel v buf old :
  c_oblig cf = [] -> bufs st = [] -> calls_left st = None -> bytes_left st = None ->
  (S (cdepth e) < fuel)%nat ->
  env_rel sc (c_ij cf) (sc_lookup (ctx st)) je ->
  ceval (c_ij cf) (sc_lookup (ctx st)) e = Some v -> printable_scalar v = true ->
  (forall s, value_string v = Ok s -> clean s) ->
  assoc_s buf (je_vars je) = Some (JStr old) ->
  exists text,
    (exists st' ws, walk cf fuel (NPrint 0 (cnode e) (map pdir_node ds)) st = (Ok VUndef, st')
                    /\ out st' = rev ws ++ out st /\ concat_b ws = text /\ ctx st' = ctx st /\ mode st' = mode st)
    /\ (exists je', js_append je buf (cgen_print_expr (mode st) ds (cgen sc e)) = Ok (text, je')
                    /\ assoc_s buf (je_vars je') = Some (JStr (old ++ text)) /\ je_data je' = je_data je).
Proof.
  intros Hob Hb Hcl Hbl Hf ER E Hp Hclean Hbuf. destruct (tostring_value_string v Hp) as (s & Hs & Ht).
  assert (W : wok st) by (unfold wok; rewrite Hb; auto).
  destruct (print_sides cf sc je st e ds fuel v s buf old Hob W Hf ER E Hp Hs Ht Hbuf) as [(st' & E1 & W1 & R) HJ].
  rewrite (print_text_agree (mode st) ds s (Hclean s Hs)) in HJ.
  exists (go_print_text (mode st) ds s). split; [|exact HJ].
  exists st', (go_print_writes (mode st) ds s). split; [exact E1|]. split; [exact (proj2 (wrote_out st st' _ Hb W1))|]. split; [apply go_print_writes_text|exact R].
Qed.
