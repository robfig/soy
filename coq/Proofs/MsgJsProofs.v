(* C11, the JavaScript backend: what soyjs GENERATES for a {msg} that has an entry in Options.Messages
   (Model/JsGen.v visit_msg / jeval_parts, i.e. soyjs/exec.go visitMsgNode / evalMsgParts), for every
   generator-walker w.  The generator resolves the catalogue at generation time: for a translation tr it
   emits, in the translation's order, an `output += '...'` statement for every text segment and the code
   of the first placeholder of the message that carries the slot's name -- the same fold over the same
   resolved item list that soyhtml's evalMsg performs at render time (C11_translation_places_values). *)
From Coq Require Import List Lia Bool.
From Soy Require Import Model.Bytes Model.Outcome Model.Num Model.Values Model.Ast Model.MsgId
  Model.Escape Model.Interp Model.MsgParts Model.JsGen Spec.MsgCat Proofs.BytesBase Proofs.MsgPartsProofs.
Import ListNotations.
Open Scope N_scope.

(* Options.Messages hands soyjs the same soymsg.Message.Parts that pomsg.newMessage built *)
Definition jpart_of (p : part) : jmpart := match p with PText t => JMRaw t | PPh n => JMPh n end.
Definition jparts_of_cmsg (m : cmsg) : list jmpart :=
  match m with
  | CSimple ps => map jpart_of ps
  | CPlural v cases => [JMPlural v (map (map jpart_of) cases)]
  end.

Section Js.
Variable o : jopts.
Variable w : node -> J unit.

(* what the generator has to emit for a translation *)
Fixpoint jrun_items (tr : list titem) : J unit :=
  match tr with
  | [] => jret tt
  | TText t :: r => write_raw_text t ;;; jrun_items r
  | TPh _ _ body :: r => w body ;;; jrun_items r
  end.

Lemma nmsg_size_pos n : (1 <= nmsg_size n)%nat.
Proof. destruct n; cbn [nmsg_size]; lia. Qed.
Lemma msg_size_length l : (length l < msg_size l)%nat.
Proof.
  unfold msg_size. induction l as [|x l IH]; cbn [fold_right length]; [lia|].
  pose proof (nmsg_size_pos x). lia.
Qed.

Lemma jfind_step f x r name :
  jfind_placeholder (S f) (x :: r) name =
  match x with
  | NMsgPlaceholder _ nm body => if bstr_eqb nm name then Ok (Some body) else jfind_placeholder f r name
  | NMsgPlural p _ v cases dflt => jfind_placeholder f (r ++ cases ++ [NList p dflt]) name
  | NMsgPluralCase p _ body => jfind_placeholder f (r ++ [NList p body]) name
  | NList _ l => jfind_placeholder f (r ++ l) name
  | _ => jfind_placeholder f r name
  end.
Proof. reflexivity. Qed.

Lemma jfind_flat : forall body name fuel, forallb flat_node body = true -> (length body < fuel)%nat ->
  jfind_placeholder fuel body name = Ok (find_ph body name).
Proof.
  induction body as [|x r IH]; intros name fuel Hf Hl; destruct fuel as [|f]; try (cbn in Hl; lia).
  - reflexivity.
  - cbn [forallb] in Hf. apply andb_true_iff in Hf. destruct Hf as [Hx Hr]. cbn [length] in Hl.
    destruct x; try discriminate; cbn [jfind_placeholder find_ph].
    + apply IH; [exact Hr|lia].
    + destruct (bstr_eqb _ name); [reflexivity|]. apply IH; [exact Hr|lia].
Qed.

Lemma jeval_parts_items body phs tr :
  (forall name, jfind_placeholder (msg_size body) body name = Ok (find_ph phs name)) ->
  items_named phs tr ->
  jeval_parts w body (map jpart_of (map item_part tr)) = jrun_items (map (resolve phs) tr).
Proof.
  intros Hlook H. apply items_named_found in H. induction H as [|[t|p n b] r Hi _ IH]; [reflexivity| |];
    cbn [map item_part jpart_of resolve jeval_parts jeval_part jrun_items].
  - rewrite IH. reflexivity.
  - destruct Hi as [b' Hf]. rewrite Hlook, Hf, IH. reflexivity.
Qed.

Theorem js_translation_places_values id body tr msgs :
  forallb flat_node body = true -> items_named body tr ->
  parts_clean (map item_part tr) ->
  o_msgs o = Some msgs -> assoc_n id msgs = Some (jparts_of_cmsg (new_message [] [msgstr_of tr])) ->
  visit_msg o w id body = jrun_items (map (resolve body) tr).
Proof.
  intros Hf Hfrom Hclean Ho Ha. unfold visit_msg. rewrite Ho, Ha.
  cbn [new_message jparts_of_cmsg]. unfold msgstr_of. rewrite (parts_print_clean _ Hclean).
  apply jeval_parts_items; [|exact Hfrom].
  intro name. apply jfind_flat; [exact Hf|apply msg_size_length].
Qed.

Theorem js_missing_falls_back id body :
  o_msgs o = None \/ (exists msgs, o_msgs o = Some msgs /\ assoc_n id msgs = None) ->
  visit_msg o w id body = jmsg_children w (msg_size body) body.
Proof. intros [H|(msgs & H1 & H2)]; unfold visit_msg; [rewrite H|rewrite H1, H2]; reflexivity. Qed.

Fixpoint jplural_cases (i : N) (bodies : list (J unit)) : J unit :=
  match bodies with
  | [] => jret tt
  | c :: cr =>
      jsln [CText t_case; CNum (dec_of_N i); CText t_colon] ;;; indent_inc ;;; c ;;;
      jsln [CText t_break] ;;; indent_dec ;;; jplural_cases (i + 1) cr
  end.

Lemma jeval_plural_unfold body var cases p vn pv cs dflt :
  jfind_plural body var = Some (NMsgPlural p vn pv cs dflt) ->
  jeval_part w body (JMPlural var cases) =
  (jindent ;;; jtxt t_plural_open ;;; w pv ;;; jemit [CText t_plural_close; CText t_nl] ;;;
   indent_inc ;;; jplural_cases 0 (map (jeval_parts w body) cases) ;;; indent_dec ;;; jsln [CText t_rbrace]).
Proof.
  intro Hf. cbn [jeval_part]. rewrite Hf.
  assert (Hparts : forall ps,
    (fix parts_loop (ps : list jmpart) : J unit :=
       match ps with [] => jret tt | q :: qr => jeval_part w body q ;;; parts_loop qr end) ps = jeval_parts w body ps).
  { induction ps as [|q qr IH]; [reflexivity|]. cbn [jeval_parts]. rewrite <- IH. reflexivity. }
  assert (Hcases : forall cases i,
    (fix cases_loop (i : N) (cs : list (list jmpart)) : J unit :=
       match cs with
       | [] => jret tt
       | c :: cr =>
           jsln [CText t_case; CNum (dec_of_N i); CText t_colon] ;;; indent_inc ;;;
           (fix parts_loop (ps : list jmpart) : J unit :=
              match ps with [] => jret tt | q :: qr => jeval_part w body q ;;; parts_loop qr end) c ;;;
           jsln [CText t_break] ;;; indent_dec ;;; cases_loop (i + 1) cr
       end) i cases = jplural_cases i (map (jeval_parts w body) cases)).
  { induction cases0 as [|c cr IH]; intro i; [reflexivity|]. cbn [map jplural_cases]. rewrite <- IH, <- Hparts. reflexivity. }
  rewrite <- Hcases. reflexivity.
Qed.

Lemma jfind_plural_body name p vn pv pc cv cb dflt :
  forallb flat_node cb = true -> forallb flat_node dflt = true ->
  jfind_placeholder (msg_size [NMsgPlural p vn pv [NMsgPluralCase pc cv cb] dflt])
    [NMsgPlural p vn pv [NMsgPluralCase pc cv cb] dflt] name = Ok (find_ph (dflt ++ cb) name).
Proof.
  intros Hc Hd.
  set (F := fold_right (fun x acc => (nmsg_size x + acc)%nat) 0%nat).
  assert (Hgo : forall l, (fix go (l : list node) : nat := match l with [] => 0%nat | x :: r => (nmsg_size x + go r)%nat end) l = F l).
  { induction l as [|x l IH]; [reflexivity|]. subst F. cbn [fold_right]. rewrite <- IH. reflexivity. }
  assert (Hsz : msg_size [NMsgPlural p vn pv [NMsgPluralCase pc cv cb] dflt] = (4 + S (3 + F cb + F dflt))%nat).
  { unfold msg_size. cbn [fold_right nmsg_size]. rewrite (Hgo cb). rewrite (Hgo dflt). lia. }
  assert (Hk : (length (dflt ++ cb) < S (3 + F cb + F dflt))%nat).
  { pose proof (msg_size_length cb) as H1. pose proof (msg_size_length dflt) as H2. unfold msg_size in H1, H2.
    fold F in H1, H2. rewrite app_length. lia. }
  rewrite Hsz. revert Hk. generalize (S (3 + F cb + F dflt))%nat as k. intros k Hk. clear Hsz Hgo F.
  change (4 + k)%nat with (S (S (S (S k)))).
  rewrite jfind_step. cbv iota beta. change ([] ++ [NMsgPluralCase pc cv cb] ++ [NList p dflt]) with [NMsgPluralCase pc cv cb; NList p dflt].
  rewrite jfind_step. cbv iota beta. change ([NList p dflt] ++ [NList pc cb]) with [NList p dflt; NList pc cb].
  rewrite jfind_step. cbv iota beta. change ([NList pc cb] ++ dflt) with (NList pc cb :: dflt).
  rewrite jfind_step. cbv iota beta.
  apply jfind_flat; [|exact Hk]. rewrite forallb_app, Hd, Hc. reflexivity.
Qed.

Theorem js_plural_places_values id p vn pv pc cv cb dflt (trs : list (list titem)) msgs :
  vn <> [] \/ length trs <> 1%nat ->
  forallb flat_node cb = true -> forallb flat_node dflt = true ->
  Forall (fun tr => items_named (dflt ++ cb) tr /\ parts_clean (map item_part tr)) trs ->
  o_msgs o = Some msgs ->
  assoc_n id msgs = Some (jparts_of_cmsg (new_message vn (map msgstr_of trs))) ->
  visit_msg o w id [NMsgPlural p vn pv [NMsgPluralCase pc cv cb] dflt] =
  (jindent ;;; jtxt t_plural_open ;;; w pv ;;; jemit [CText t_plural_close; CText t_nl] ;;;
   indent_inc ;;;
   jplural_cases 0 (map (fun tr => jrun_items (map (resolve (dflt ++ cb)) tr)) trs) ;;;
   indent_dec ;;; jsln [CText t_rbrace]) ;;; jret tt.
Proof.
  intros Hv Hc Hd Htrs Ho Ha. unfold visit_msg. rewrite Ho, Ha.
  rewrite (new_message_plural vn (map msgstr_of trs)) by (rewrite map_length; exact Hv).
  cbn [jparts_of_cmsg jeval_parts].
  rewrite (jeval_plural_unfold _ vn _ p vn pv [NMsgPluralCase pc cv cb] dflt).
  2:{ cbn [jfind_plural]. rewrite bstr_eqb_refl. reflexivity. }
  f_equal. f_equal.
  rewrite !map_map. 
  assert (Hm : map (fun x => jeval_parts w [NMsgPlural p vn pv [NMsgPluralCase pc cv cb] dflt] (map jpart_of (parts (msgstr_of x)))) trs
             = map (fun tr => jrun_items (map (resolve (dflt ++ cb)) tr)) trs).
  { apply map_ext_in. intros tr Hin. rewrite Forall_forall in Htrs. destruct (Htrs tr Hin) as [Hn Hcl].
    unfold msgstr_of. rewrite (parts_print_clean _ Hcl).
    apply jeval_parts_items; [|exact Hn]. intro name. apply jfind_plural_body; assumption. }
  rewrite Hm. reflexivity.
Qed.

End Js.
