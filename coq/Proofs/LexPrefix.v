(* Prefix determinism of the scanner (C19): two inputs with a common prefix [pre].  Part 1: the
   primitives.  A primitive reads a few bytes at the cursor: applied far enough before the end of the common
   prefix it gives the same outcome on both inputs.  [tracks] composes such facts along a scanner function. *)
From Soy Require Import Model.Bytes Model.Utf8 Model.Outcome Model.Token Model.Lexer Generated.Tables.
From Soy Require Export Proofs.BytesBase.
From Coq Require Import ZifyBool Lia List.
Import ListNotations.
Open Scope Z_scope.

Lemma decode_rune_prefix (a c : bstr) : take 4 a = take 4 c -> decode_rune a = decode_rune c.
Proof.
  destruct a as [|a0 [|a1 [|a2 [|a3 a]]]]; destruct c as [|c0 [|c1 [|c2 [|c3 c]]]]; cbn [take]; intros H; inversion H; subst; reflexivity.
Qed.
Lemma decode_rune_width (s : bstr) : (snd (decode_rune s) <= 4)%nat /\ (s <> [] -> 1 <= snd (decode_rune s))%nat.
Proof.
  unfold decode_rune. destruct s as [|b0 r]; [cbn; split; [lia|congruence]|].
  repeat match goal with
  | |- context [match ?x with _ => _ end] => destruct x
  | |- context [let _ := _ in _] => cbv zeta
  end; cbn [snd]; lia.
Qed.

Lemma is_prefix_app_long (kw : bstr) : forall (a c : bstr), (length kw <= length a)%nat -> is_prefix kw (a ++ c) = is_prefix kw a.
Proof. induction kw as [|k kw IH]; intros [|x a] c H; cbn [is_prefix app length] in *; try lia; auto. rewrite IH by lia. reflexivity. Qed.
Lemma is_prefix_len (kw v : bstr) : is_prefix kw v = true -> Z.of_nat (length kw) <= Z.of_nat (length v).
Proof. revert v. induction kw as [|k kw IH]; intros [|x v] H; cbn [is_prefix length] in *; try solve [lia|discriminate]. all: apply andb_prop in H; destruct H as [_ H]; apply IH in H; lia. Qed.

Lemma index_of_ge sep : forall s i0 i, index_of sep s i0 = Some i -> i0 <= i.
Proof.
  induction s as [|x s IH]; intros i0 i H; cbn [index_of] in H.
  - destruct (is_prefix sep []); inversion H; lia.
  - destruct (is_prefix sep (x :: s)); [inversion H; lia|]. apply IH in H. lia.
Qed.
Lemma index_of_app_long (sep : bstr) : forall (a c1 c2 : bstr) i0 i,
  index_of sep (a ++ c1) i0 = Some i -> (Z.to_nat (i - i0) + length sep <= length a)%nat ->
  index_of sep (a ++ c2) i0 = Some i.
Proof.
  induction a as [|x a IH]; intros c1 c2 i0 i H Hl.
  - cbn [app length] in *. assert (length sep = 0)%nat by lia. destruct sep; [|discriminate].
    destruct c1; cbn in H; inversion H; subst; destruct c2; reflexivity.
  - pose proof (index_of_ge _ _ _ _ H) as Hi. cbn [app index_of] in *.
    change (x :: a ++ c1) with ((x :: a) ++ c1) in H. change (x :: a ++ c2) with ((x :: a) ++ c2).
    assert (Hs : (length sep <= length (x :: a))%nat) by lia.
    rewrite (is_prefix_app_long sep (x :: a) c1 Hs) in H. rewrite (is_prefix_app_long sep (x :: a) c2 Hs).
    destruct (is_prefix sep (x :: a)); [exact H|].
    pose proof (index_of_ge _ _ _ _ H). apply (IH c1 c2 (i0 + 1) i H). cbn [length] in Hl. lia.
Qed.

(* where the primitives leave the cursor, on any input *)
Section Facts.
Variable inp : bstr.
Notation n := (Z.of_nat (length inp)).
Variable base : Z.

(* next: one rune forward, the width is the distance moved; before the end of the input (and only there a rune other
   than eof is read) the cursor does move *)
Definition moved (l : lx) (r : Z) (l1 : lx) : Prop := l_pos l < n \/ r <> eof -> l_pos l < l_pos l1.
Definition next_fact (l : lx) (r : Z) (l1 : lx) : Prop :=
  0 <= l_pos l /\ l_pos l <= l_pos l1 <= l_pos l + 4 /\ l_width l1 = l_pos l1 - l_pos l /\ l_start l1 = l_start l /\ moved l r l1.
Lemma next_facts l r l1 : next inp n l = Ok (r, l1) -> next_fact l r l1.
Proof.
  unfold next, next_fact, moved. destruct (n <=? l_pos l) eqn:E0; [intros E; inversion E; subst; cbn; lia|].
  destruct (l_pos l <? 0) eqn:E1; [discriminate|].
  pose proof (decode_rune_width (drop (Z.to_nat (l_pos l)) inp)) as [W4 W1].
  destruct (decode_rune _) as [rr w]. intros E; inversion E; subst; clear E. cbn [l_pos l_width l_start snd] in *.
  assert (1 <= w)%nat; [|lia]. apply W1. intros Ed. apply (f_equal (@length _)) in Ed. rewrite drop_length in Ed. cbn in Ed. lia.
Qed.

Definition same_pos (l l1 : lx) : Prop := l_pos l1 = l_pos l /\ l_start l1 = l_start l /\ 0 <= l_pos l /\ 0 <= l_width l1 <= 4.

Definition emit_fact (l l1 : lx) : Prop := l_pos l1 = Z.min (l_pos l) n /\ l_start l1 = l_pos l1 /\ l_width l1 = l_width l.
Lemma emit_facts t l l1 : emit inp n base t l = Ok l1 -> emit_fact l l1.
Proof.
  unfold emit, emit_fact. destruct (n <? l_pos l) eqn:E; destruct (slice _ _ _ _); cbn [bind]; try discriminate; intros H; inversion H; subst; cbn [l_pos l_start l_width set_pos]; lia.
Qed.

(* r is where a scanning loop begun at l has read its last rune: un-reading it does not go behind l *)
Definition fwd (l r : lx) : Prop := l_pos l <= l_pos r - l_width r /\ 0 <= l_width r <= 4 /\ l_start r = l_start l.
(* accept, and everything else that ends where a rune was read or un-read: not behind where it began *)
Definition lmono (l r : lx) : Prop := l_pos l <= l_pos r /\ 0 <= l_width r <= 4 /\ l_start r = l_start l.

Lemma slice_ok a e v : slice inp n a e = Ok v -> (0 <= a <= e /\ e <= n) /\ Z.of_nat (length v) = e - a.
Proof.
  unfold slice. destruct (a <? 0) eqn:E1; [discriminate|]. destruct (e <? a) eqn:E2; [discriminate|]. destruct (n <? e) eqn:E3; [discriminate|].
  cbn [orb]. intros H; inversion H; subst. split; [lia|]. rewrite take_length; [lia|]. rewrite drop_length. lia.
Qed.

Definition met_fact (l l1 : lx) : Prop := l_pos l1 = l_pos l /\ l_width l1 = l_width l.
Lemma met_facts l bk l1 : 0 <= bk -> maybe_emit_text inp n base l bk = Ok l1 -> met_fact l l1.
Proof.
  intros Hb. unfold maybe_emit_text, met_fact. destruct (l_start l <? l_pos l - bk); [|intros H; inversion H; subst; auto].
  destruct (slice _ _ _ _) as [v| | | | |] eqn:Es; cbn [bind]; try discriminate. apply slice_ok in Es. destruct Es as [Es _]. cbn [l_pos l_start set_pos] in Es.
  destruct (all_space_with_newline v); cbn [bind].
  - intros H; inversion H; subst. cbn [l_pos l_width set_pos set_start ignore]. lia.
  - destruct (emit _ _ _ _ _) as [l2| | | | |] eqn:E; cbn [bind]; try discriminate. apply emit_facts in E. unfold emit_fact in E. cbn [l_pos l_width set_pos] in E.
    intros H; inversion H; subst. cbn [l_pos l_width set_pos]. lia.
Qed.
Definition errorf_fact (l : lx) (p : lstate * lx) : Prop := l_pos (snd p) = l_pos l /\ fst p = LDone.
Lemma errorf_facts c l p : errorf base c l = Ok p -> errorf_fact l p.
Proof. unfold errorf, errorf_fact. destruct (_ <? 0); [discriminate|]. intros H; inversion H; subst. cbn. auto. Qed.
End Facts.

(* the cursor arithmetic of a path through a scanner function: the facts above, unfolded ([moved] stays folded: it
   matters to the fuel of a loop only; a [Z -> bool] in sight, unicode.IsLetter, would go into lia's proof term and take
   section variables with it that the statement does not mention) *)
Ltac pos_lia :=
  unfold next_fact, same_pos, emit_fact, fwd, lmono, met_fact, errorf_fact in *;
  cbn [l_pos l_start l_width l_dd set_pos set_start set_dd backup ignore tick fst snd] in *;
  repeat match goal with
  | |- _ -> _ => intro
  | H : _ /\ _ |- _ => destruct H
  | f : Z -> bool |- _ => clear f
  end; lia.

(* [tracks F P Q c1 c2]: c1 is a piece of a scanner function run on the first input, c2 the same piece on the
   second; [Q] says that what ran before them has read the common prefix only.  If c1 ends in [a] then [F a]
   (where the cursor went), and if [P a] -- [a] lies far enough before the end of the common prefix -- then Q, and
   c2 ends in [a] too.  A function is followed from its first primitive to each of its returns ([tr_bind], [tr_ret]),
   Q collecting what each call needs; the cursor arithmetic of a path is done once, where it returns. *)
Definition tracks {A} (F P : A -> Prop) (Q : Prop) (c1 c2 : outcome A) : Prop :=
  forall a, c1 = Ok a -> F a /\ (P a -> Q /\ c2 = Ok a).

Lemma tracks_det {A} (F P : A -> Prop) Q c1 c2 : tracks F P Q c1 c2 -> forall a, c1 = Ok a -> P a -> c2 = Ok a.
Proof. intros T a E Pa. apply (T a E). exact Pa. Qed.

Lemma tr_ret {A} (F P : A -> Prop) (Q : Prop) a : F a -> (P a -> Q) -> tracks F P Q (Ok a) (Ok a).
Proof. intros Fa Pa b E. inversion E; subst. auto. Qed.
Lemma tr_pre {A} (Q' : Prop) (F P : A -> Prop) (Q : Prop) c1 c2 : tracks F P Q' c1 c2 -> (Q' -> Q) -> tracks F P Q c1 c2.
Proof. intros T HQ a E. destruct (T a E) as [Fa Pa]. split; [exact Fa|]. intros Hp. destruct (Pa Hp). auto. Qed.
Lemma tr_diverge {A} (F P : A -> Prop) Q c2 : tracks F P Q Diverge c2.
Proof. intros a E. discriminate E. Qed.

Lemma tr_bind_eq {A B} (FA PA : A -> Prop) (F P : B -> Prop) (Q : Prop) g1 g2 k1 k2 :
  tracks FA PA True g1 g2 ->
  (forall a, g1 = Ok a -> FA a -> tracks F P (Q /\ PA a) (k1 a) (k2 a)) ->
  tracks F P Q (bind g1 k1) (bind g2 k2).
Proof.
  intros G K b E. destruct g1 as [a| | | | |]; try discriminate E. cbn [bind] in E.
  destruct (G a eq_refl) as [Fa Ga]. destruct (K a eq_refl Fa b E) as [Fb Kb]. split; [exact Fb|].
  intros Pb. destruct (Kb Pb) as [[HQ Pa] E2]. destruct (Ga Pa) as [_ G2]. rewrite G2. split; [exact HQ|exact E2].
Qed.
Lemma tr_bind {A B} (FA PA : A -> Prop) (F P : B -> Prop) (Q : Prop) g1 g2 k1 k2 :
  tracks FA PA True g1 g2 ->
  (forall a, FA a -> tracks F P (Q /\ PA a) (k1 a) (k2 a)) ->
  tracks F P Q (bind g1 k1) (bind g2 k2).
Proof. intros G K. apply (tr_bind_eq _ _ _ _ _ _ _ _ _ G). intros a _. apply K. Qed.
Lemma tr_assoc {A B C} (F P : C -> Prop) Q (g1 g2 : outcome A) (f1 f2 : A -> outcome B) (k1 k2 : B -> outcome C) :
  tracks F P Q (bind g1 (fun a => bind (f1 a) k1)) (bind g2 (fun a => bind (f2 a) k2)) ->
  tracks F P Q (bind (bind g1 f1) k1) (bind (bind g2 f2) k2).
Proof. destruct g1, g2; exact (fun T => T). Qed.

(* the last call of a function *)
Lemma tr_tail {A} (FA PA F P : A -> Prop) (Q : Prop) g1 g2 :
  tracks FA PA True g1 g2 -> (forall a, FA a -> F a /\ (P a -> Q /\ PA a)) -> tracks F P Q g1 g2.
Proof.
  intros G K a E. destruct (G a E) as [Fa Ga]. destruct (K a Fa) as [Fa' Pa]. split; [exact Fa'|].
  intros Hp. destruct (Pa Hp) as [HQ Hp']. split; [exact HQ|]. apply Ga. exact Hp'.
Qed.
(* the recursive call of a fuelled loop: the second run's fuel is [S (remaining input 2)], enough for the part of
   the common prefix ahead of the cursor ([k]) once the cursor is known to lie in it, which Q tells *)
Lemma tr_loop {A} (FA PA F P : A -> Prop) (Q : Prop) c1 (g2 : nat -> outcome A) k f2 :
  (forall f, (k < f)%nat -> tracks FA PA True c1 (g2 f)) ->
  (Q -> (k < f2)%nat) ->
  (forall a, FA a -> F a /\ (P a -> Q /\ PA a)) ->
  tracks F P Q c1 (g2 f2).
Proof.
  intros G Hf K a E. destruct (K a (proj1 (G (S k) ltac:(lia) a E))) as [Fa Pa]. split; [exact Fa|].
  intros Hp. destruct (Pa Hp) as [HQ Hp']. split; [exact HQ|]. exact (tracks_det _ _ _ _ _ (G f2 (Hf HQ)) a E Hp').
Qed.
(* a piece that does not look at the input *)
Lemma tr_same {A} (F : A -> Prop) (c : outcome A) : (forall a, c = Ok a -> F a) -> tracks F (fun _ => True) True c c.
Proof. intros Fc a E. split; [exact (Fc a E)|]. intros _. split; [exact I|exact E]. Qed.
(* a primitive that is the same on both inputs when [P0] *)
Lemma tr_agree {A} (F : A -> Prop) (P0 : Prop) (c1 c2 : outcome A) :
  (forall a, c1 = Ok a -> F a /\ (P0 -> c1 = c2)) -> tracks F (fun _ => P0) True c1 c2.
Proof. intros G a E. destruct (G a E) as [Fa Ga]. split; [exact Fa|]. intros Hp. rewrite <- (Ga Hp). split; [exact I|exact E]. Qed.

Arguments tr_loop {A FA PA F P Q c1 g2 k f2}.

Section Prefix.
Variable pre r1 r2 : bstr.
Variable base : Z.
Notation inp1 := (pre ++ r1).
Notation inp2 := (pre ++ r2).
Notation n1 := (Z.of_nat (length (pre ++ r1))).
Notation n2 := (Z.of_nat (length (pre ++ r2))).
Notation h := (Z.of_nat (length pre)).

Lemma h_le1 : h <= n1. Proof. rewrite app_length. lia. Qed.
Lemma h_le2 : h <= n2. Proof. rewrite app_length. lia. Qed.
(* the fuel of a scanning loop on the second input covers the common prefix *)
Lemma loop_fuel_enough l : (Z.to_nat (h - l_pos l) < loop_fuel n2 l)%nat.
Proof. pose proof h_le2. unfold loop_fuel. lia. Qed.

Lemma take_drop_agree (p k : nat) : (p + k <= length pre)%nat -> take k (drop p inp1) = take k (drop p inp2).
Proof.
  intros H. rewrite !drop_app_le by lia. rewrite !take_app_le; [reflexivity| |]; rewrite drop_length; lia.
Qed.

Lemma next_agree l : 0 <= l_pos l -> l_pos l + 4 <= h -> next inp1 n1 l = next inp2 n2 l.
Proof.
  intros H0 H. pose proof h_le1. pose proof h_le2. unfold next.
  destruct (n1 <=? l_pos l) eqn:E1; [lia|]. destruct (n2 <=? l_pos l) eqn:E2; [lia|].
  destruct (l_pos l <? 0); [reflexivity|].
  rewrite (decode_rune_prefix (drop (Z.to_nat (l_pos l)) inp1) (drop (Z.to_nat (l_pos l)) inp2)); [reflexivity|].
  apply take_drop_agree. lia.
Qed.

(* An ASCII lead byte needs ONE byte of look-ahead: the decoder looks at the bytes behind the first only when the
   first is >= 128.  (The per-state lemmas of LexPrefixStates.v ff. use [next_agree], with its margin of four bytes.) *)
Lemma decode_rune_prefix_ascii (a c : bstr) x : (x <? 128)%N = true -> take 1 a = [x] -> take 1 c = [x] -> decode_rune a = decode_rune c.
Proof.
  intros Hx Ha Hc. destruct a as [|a0 a]; [discriminate|]. destruct c as [|c0 c]; [discriminate|].
  cbn [take] in Ha, Hc. inversion Ha; inversion Hc; subst. unfold decode_rune. rewrite Hx. reflexivity.
Qed.

Lemma next_agree_ascii l c : 0 <= l_pos l -> l_pos l + 1 <= h ->
  byte_at inp1 n1 (l_pos l) = Ok c -> c < 128 -> next inp1 n1 l = next inp2 n2 l.
Proof.
  intros H0 H Hb Hc. pose proof h_le1. pose proof h_le2. unfold next.
  destruct (n1 <=? l_pos l) eqn:E1; [lia|]. destruct (n2 <=? l_pos l) eqn:E2; [lia|].
  destruct (l_pos l <? 0); [reflexivity|].
  pose proof (take_drop_agree (Z.to_nat (l_pos l)) 1 ltac:(lia)) as T.
  unfold byte_at in Hb. destruct ((l_pos l <? 0) || (n1 <=? l_pos l)); [discriminate|].
  destruct (drop (Z.to_nat (l_pos l)) inp1) as [|x t1] eqn:D1; [discriminate|]. inversion Hb; subst c.
  rewrite (decode_rune_prefix_ascii (x :: t1) (drop (Z.to_nat (l_pos l)) inp2) x); [reflexivity| |reflexivity|].
  - apply N.ltb_lt. lia.
  - rewrite <- T. reflexivity.
Qed.

Lemma peek_agree_ascii l c : 0 <= l_pos l -> l_pos l + 1 <= h ->
  byte_at inp1 n1 (l_pos l) = Ok c -> c < 128 -> peek inp1 n1 l = peek inp2 n2 l.
Proof. intros. unfold peek. rewrite (next_agree_ascii l c) by assumption. reflexivity. Qed.

Lemma slice_agree a e : e <= h -> slice inp1 n1 a e = slice inp2 n2 a e.
Proof.
  intros H. pose proof h_le1. pose proof h_le2. unfold slice.
  destruct (a <? 0) eqn:Ea; [reflexivity|]. destruct (e <? a) eqn:Ee; [reflexivity|]. cbn [orb].
  destruct (n1 <? e) eqn:E1; [lia|]. destruct (n2 <? e) eqn:E2; [lia|]. f_equal.
  apply take_drop_agree. lia.
Qed.

Lemma byte_at_agree i : i < h -> byte_at inp1 n1 i = byte_at inp2 n2 i.
Proof.
  intros H. pose proof h_le1. pose proof h_le2. unfold byte_at.
  destruct (i <? 0) eqn:Ei; [reflexivity|]. cbn [orb].
  destruct (n1 <=? i) eqn:E1; [lia|]. destruct (n2 <=? i) eqn:E2; [lia|].
  pose proof (take_drop_agree (Z.to_nat i) 1 ltac:(lia)) as T.
  destruct (drop (Z.to_nat i) inp1) as [|c1 t1]; destruct (drop (Z.to_nat i) inp2) as [|c2 t2]; cbn [take] in T; inversion T; reflexivity.
Qed.

Lemma emit_agree t l : l_pos l <= h -> emit inp1 n1 base t l = emit inp2 n2 base t l.
Proof.
  intros H. pose proof h_le1. pose proof h_le2. unfold emit.
  destruct (n1 <? l_pos l) eqn:E1; [lia|]. destruct (n2 <? l_pos l) eqn:E2; [lia|].
  rewrite slice_agree by assumption. reflexivity.
Qed.

Lemma emit_to_agree t st l : l_pos l <= h -> emit_to inp1 n1 base t st l = emit_to inp2 n2 base t st l.
Proof. intros. unfold emit_to. rewrite emit_agree by assumption. reflexivity. Qed.

Lemma maybe_emit_text_agree l bk : 0 <= bk -> l_pos l <= h -> maybe_emit_text inp1 n1 base l bk = maybe_emit_text inp2 n2 base l bk.
Proof.
  intros Hb H. unfold maybe_emit_text. destruct (l_start l <? l_pos l - bk); [|reflexivity].
  rewrite slice_agree by (cbn [l_pos set_pos]; lia).
  destruct (slice inp2 n2 _ _) as [v| | | | |]; cbn [bind]; try reflexivity.
  destruct (all_space_with_newline v); [reflexivity|]. rewrite emit_agree by (cbn [l_pos set_pos]; lia). reflexivity.
Qed.

(* l.input[p:]: the rest of either input, as far as a look-ahead of k bytes can tell *)
Lemma tail_slice_agree p tl1 k : 0 <= p -> p + Z.of_nat k <= h -> slice inp1 n1 p n1 = Ok tl1 ->
  exists tl2 t c1 c2, slice inp2 n2 p n2 = Ok tl2 /\ tl1 = t ++ c1 /\ tl2 = t ++ c2 /\ (k <= length t)%nat.
Proof.
  intros H0 H Hs. pose proof h_le1. pose proof h_le2. unfold slice in *.
  destruct (p <? 0) eqn:E0; [lia|]. destruct (n1 <? p) eqn:E1; [lia|]. destruct (n2 <? p) eqn:E2; [lia|]. cbn [orb] in *.
  destruct (n1 <? n1) eqn:E3; [lia|]. destruct (n2 <? n2) eqn:E4; [lia|]. inversion Hs; subst; clear Hs.
  exists (drop (Z.to_nat p) inp2), (drop (Z.to_nat p) pre), r1, r2.
  rewrite !take_all by (rewrite drop_length; lia). rewrite !drop_app_le by lia. rewrite drop_length. repeat split; lia.
Qed.

Lemma next_tracks l : tracks (fun a => next_fact inp1 l (fst a) (snd a)) (fun _ => l_pos l + 4 <= h) True (next inp1 n1 l) (next inp2 n2 l).
Proof. apply tr_agree. intros [r l1] E. apply next_facts in E. split; [exact E|]. apply next_agree, E. Qed.
Lemma peek_tracks l : tracks (fun a => same_pos l (snd a)) (fun _ => l_pos l + 4 <= h) True (peek inp1 n1 l) (peek inp2 n2 l).
Proof. unfold peek. eapply tr_bind; [apply next_tracks|]. intros [r l1] F1. apply tr_ret; pos_lia. Qed.
Lemma accept_tracks v l : tracks (fun a => lmono l (snd a)) (fun _ => l_pos l + 4 <= h) True (accept inp1 n1 v l) (accept inp2 n2 v l).
Proof. unfold accept. eapply tr_bind; [apply next_tracks|]. intros [r l1] F1. cbn [bind]. destruct (in_set v r); apply tr_ret; pos_lia. Qed.
Lemma emit_tracks t l : tracks (emit_fact inp1 l) (fun _ => l_pos l <= h) True (emit inp1 n1 base t l) (emit inp2 n2 base t l).
Proof. apply tr_agree. intros l1 E. apply emit_facts in E. split; [exact E|]. apply emit_agree. Qed.
Lemma met_tracks l bk : 0 <= bk ->
  tracks (met_fact l) (fun _ => l_pos l <= h) True (maybe_emit_text inp1 n1 base l bk) (maybe_emit_text inp2 n2 base l bk).
Proof. intros Hb. apply tr_agree. intros l1 E. apply (met_facts _ _ _ _ _ Hb) in E. split; [exact E|]. apply maybe_emit_text_agree, Hb. Qed.
Lemma slice_tracks a e : tracks (fun _ => a <= e) (fun _ => e <= h) True (slice inp1 n1 a e) (slice inp2 n2 a e).
Proof. apply tr_agree. intros v E. apply slice_ok in E. split; [lia|]. apply slice_agree. Qed.
Lemma byte_at_tracks i : tracks (fun _ => True) (fun _ => i < h) True (byte_at inp1 n1 i) (byte_at inp2 n2 i).
Proof. apply tr_agree. intros v _. split; [exact I|]. apply byte_at_agree. Qed.
Lemma errorf_tracks c l : tracks (errorf_fact l) (fun _ => True) True (errorf base c l) (errorf base c l).
Proof. apply tr_same, errorf_facts. Qed.

(* `if strings.HasPrefix(l.input[l.pos:], kw)`: the two rests differ, the test looks at |kw| bytes of them *)
Lemma tr_has_prefix {B} (F P : B -> Prop) (Q : Prop) kw p (k1 k2 : bool -> outcome B) :
  (forall bb, (bb = true -> p + Z.of_nat (length kw) <= n1) -> tracks F P (Q /\ p + Z.of_nat (length kw) <= h) (k1 bb) (k2 bb)) ->
  tracks F P Q (bind (slice inp1 n1 p n1) (fun tl => k1 (is_prefix kw tl))) (bind (slice inp2 n2 p n2) (fun tl => k2 (is_prefix kw tl))).
Proof.
  intros K b E. destruct (slice inp1 n1 p n1) as [tl1| | | | |] eqn:Es; try discriminate E. cbn [bind] in E.
  assert (H0 : 0 <= p) by (apply slice_ok in Es; lia).
  assert (Hk : is_prefix kw tl1 = true -> p + Z.of_nat (length kw) <= n1).
  { intros Hp. apply is_prefix_len in Hp. apply slice_ok in Es. lia. }
  destruct (K _ Hk b E) as [Fb Kb]. split; [exact Fb|]. intros Pb. destruct (Kb Pb) as [[HQ Hh] E2]. split; [exact HQ|].
  destruct (tail_slice_agree p tl1 (length kw) H0 Hh Es) as (tl2 & t & c1 & c2 & Es2 & -> & -> & Hl).
  rewrite Es2. cbn [bind]. rewrite is_prefix_app_long in E2 |- * by exact Hl. exact E2.
Qed.
(* `strings.Index(l.input[l.pos:], sep)`: found at i, the search has looked at i + |sep| bytes of the rest; not found
   (an error item follows) is no result the second run need share *)
Lemma tr_index_of {B} (F P : B -> Prop) (Q : Prop) sep p (e1 e2 : outcome B) (k1 k2 : Z -> outcome B) :
  (forall i, 0 <= i -> tracks F P (Q /\ p + i + Z.of_nat (length sep) <= h) (k1 i) (k2 i)) ->
  (forall a, e1 = Ok a -> F a /\ ~ P a) ->
  tracks F P Q
    (bind (slice inp1 n1 p n1) (fun tl => match index_of sep tl 0 with Some i => k1 i | None => e1 end))
    (bind (slice inp2 n2 p n2) (fun tl => match index_of sep tl 0 with Some i => k2 i | None => e2 end)).
Proof.
  intros K N b E. destruct (slice inp1 n1 p n1) as [tl1| | | | |] eqn:Es; try discriminate E. cbn [bind] in E.
  assert (H0 : 0 <= p) by (apply slice_ok in Es; lia).
  destruct (index_of sep tl1 0) as [i|] eqn:Ex; [|destruct (N b E) as [Fb Pb]; split; [exact Fb|intros Hp; destruct (Pb Hp)]].
  pose proof (index_of_ge _ _ _ _ Ex) as Hi. destruct (K i Hi b E) as [Fb Kb]. split; [exact Fb|].
  intros Pb. destruct (Kb Pb) as [[HQ Hh] E2]. split; [exact HQ|].
  destruct (tail_slice_agree p tl1 (Z.to_nat i + length sep) H0 ltac:(lia) Es) as (tl2 & t & c1 & c2 & Es2 & -> & -> & Hl).
  rewrite Es2. cbn [bind]. rewrite (index_of_app_long sep t c1 c2 0 i Ex) by lia. exact E2.
Qed.
End Prefix.

(* one step along a function: [lem] is the lemma of the primitive or helper called first (its side conditions are
   the fuel of a loop, or cursor arithmetic), [a] names what it returns, [Fa] where it left the cursor *)
Ltac side := first [apply loop_fuel_enough | pos_lia].
Ltac reassoc := repeat lazymatch goal with |- tracks _ _ _ (bind (bind _ _) _) _ => apply tr_assoc end.
Tactic Notation "step" uconstr(lem) "as" simple_intropattern(a) simple_intropattern(Fa) :=
  reassoc; eapply tr_bind; [apply lem; side|]; intros a Fa; cbn [bind fst snd].
(* the same, keeping the equation of the first run *)
Tactic Notation "step" uconstr(lem) "as" simple_intropattern(a) simple_intropattern(Fa) "eqn" ":" ident(E) :=
  reassoc; eapply tr_bind_eq; [apply lem; side|]; intros a E Fa; cbn [bind fst snd].
(* the last call *)
Tactic Notation "last" uconstr(lem) "as" simple_intropattern(a) simple_intropattern(Fa) :=
  eapply tr_tail; [apply lem; side|]; intros a Fa.
(* the `if` a function begins with *)
Ltac branch :=
  reassoc; lazymatch goal with
  | |- tracks _ _ _ (bind (if ?c then _ else _) _) _ => destruct c
  | |- tracks _ _ _ (if ?c then _ else _) _ => destruct c
  end; cbn [bind fst snd].
Tactic Notation "branch" "eqn" ":" ident(C) :=
  reassoc; lazymatch goal with
  | |- tracks _ _ _ (bind (if ?c then _ else _) _) _ => destruct c eqn:C
  | |- tracks _ _ _ (if ?c then _ else _) _ => destruct c eqn:C
  end; cbn [bind fst snd].

(* the look-ahead constants of the scanner (re-read from the source by tablegen) are short *)
Lemma kw_lens :
  0 <= num_hex_prefix_len <= 4 /\ 5 <= soydoc_kw_len <= 8 /\ 0 <= header_kw_len <= 8 /\
  Z.of_nat (length literal_close1) <= 12 /\ Z.of_nat (length literal_close2) <= 12 /\ Z.of_nat (length literal_end_kw) <= 8 /\
  Z.of_nat (length soydoc_param_kw) = soydoc_kw_len /\ Z.of_nat (length header_param_kw) = header_kw_len.
Proof. vm_compute. repeat split; discriminate. Qed.
