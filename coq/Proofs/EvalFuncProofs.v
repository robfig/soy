(* C01, part 2: the built-in functions.  apply_func of Model/Interp.v (soyhtml/funcs.go) on
   evaluated arguments agrees with the documented meaning written in Spec/Expr.v
   (apply_fn_spec), for every function of the table and every argument list, of any length
   ([apply_rel]); the arity table of the Spec is the one regenerated from the Go source. *)
From Coq Require Import Lia ZifyBool.
From Soy Require Import Model.Bytes Model.Num Model.Values Model.Outcome Model.Ast Model.Interp
  Model.ExprTrans Spec.Expr Generated.Tables Proofs.ValueProofs Proofs.EvalProofs.
From Soy Require Export Proofs.BytesBase.
Open Scope N_scope.

Definition fres_of (r : fresult) : fres :=
  match r with RValue v => FVal v | RList l => FNewList l | RMap m => FNewMap m end.

(* ---- the tie to the regenerated table: names, arities, not a loop function ---- *)

Lemma fn_arities_table f : func_arities (fn_name f) = Some (map N.of_nat (fn_arities f)).
Proof. destruct f; vm_compute; reflexivity. Qed.

Lemma fn_not_loop f :
  fn_is (fn_name f) n_index || fn_is (fn_name f) n_isFirst || fn_is (fn_name f) n_isLast = false.
Proof. destruct f; vm_compute; reflexivity. Qed.

Lemma mem_of_nat n (ar : list nat) : mem (N.of_nat n) (map N.of_nat ar) = existsb (Nat.eqb n) ar.
Proof.
  unfold mem. induction ar as [|a r IH]; cbn [map existsb]; [reflexivity|].
  rewrite IH. f_equal.
  destruct (N.eqb_spec (N.of_nat n) (N.of_nat a)), (Nat.eqb_spec n a); try reflexivity; lia.
Qed.

(* ---- a numeric argument: the Spec reads it with number_of, funcs.go with toFloat ---- *)

Lemma number_arg_rel v (sf : fl -> outcome fresult) (jf : fl -> outcome fres) :
  (forall x, orel (r <- sf x ;; Ok (fres_of r)) (jf x)) ->
  orel (r <- (x <- number_of v ;; sf x) ;; Ok (fres_of r)) (x <- to_float v ;; jf x).
Proof.
  intros H. pose proof (number_of_to_float v) as Hv. destruct (number_of v) as [x| | | | |]; cbn in *; try exact I.
  - rewrite Hv. apply H.
  - destruct Hv as [m' ->]. cbn. eauto.
Qed.


Lemma strip2_sign p e : let '(q, e') := strip2 p e in True.
Proof. destruct (strip2 p e); exact I. Qed.

Lemma mk_fl_isneg M e y : mk_fl M e = Some y -> fl_isneg y = (M <? 0)%Z.
Proof.
  unfold mk_fl. destruct M as [|p|p]; [intros [= <-]; reflexivity| |];
    (destruct (strip2 p e) as [q e']; destruct (_ && _); [|discriminate]; intros [= <-]; reflexivity).
Qed.

Lemma fl_trunc_floor y : fl_isneg y = false -> fl_trunc_Z y = fl_floor_Z y.
Proof.
  destruct y as [| | |m e]; try reflexivity. cbn [fl_isneg fl_trunc_Z fl_floor_Z]. intros Hm.
  destruct (0 <=? e)%Z eqn:He; [reflexivity|]. f_equal. apply Z.quot_div_nonneg; [lia|apply Z.pow_pos_nonneg; lia].
Qed.

Lemma fl_trunc_ceil y : fl_isneg y = true -> fl_trunc_Z y = fl_ceil_Z y.
Proof.
  destruct y as [| | |m e]; try reflexivity. cbn [fl_isneg fl_trunc_Z fl_ceil_Z]. intros Hm.
  destruct (0 <=? e)%Z eqn:He; [reflexivity|]. f_equal.
  assert (Hd : (0 < 2 ^ (- e))%Z) by (apply Z.pow_pos_nonneg; lia).
  rewrite <- (Z.opp_involutive m) at 1. rewrite Z.quot_opp_l by lia. f_equal. apply Z.quot_div_nonneg; lia.
Qed.

Definition round_impl (x : fl) : outcome fres :=
  match fl_add x (if fl_isneg x && negb (fl_is_zero x) then fl_neg half else half) with
  | Some y => match fl_trunc_Z y with Some z => Ok (FVal (VInt (wrap64 z))) | None => OutOfModel end
  | None => OutOfModel
  end.

Lemma int_res_rel z : orel (r <- (r <- int_result z ;; Ok (RValue r)) ;; Ok (fres_of r)) (Ok (FVal (VInt (wrap64 z)))).
Proof. unfold int_result. destruct (in_int64 z) eqn:Hz; cbn; [|exact I]. rewrite (wrap64_id _ Hz). reflexivity. Qed.

(* x - 1/2 keeps the sign of a negative x, x + 1/2 is positive otherwise: the sum of two mantissas of one sign *)
Lemma round_rel x : orel (r <- (r <- round_half_away x ;; Ok (RValue r)) ;; Ok (fres_of r)) (round_impl x).
Proof.
  unfold round_half_away, round_impl, fl_sub, half_up, half.
  destruct x as [| s | s | m e]; [exact I|destruct s; exact I|destruct s; lazy; reflexivity|].
  cbn [fl_isneg fl_is_zero negb andb]. rewrite andb_true_r.
  assert (H1 : (0 < 2 ^ (e - Z.min e (-1)))%Z) by (apply Z.pow_pos_nonneg; lia).
  assert (H2 : (0 < 2 ^ (-1 - Z.min e (-1)))%Z) by (apply Z.pow_pos_nonneg; lia).
  destruct (m <? 0)%Z eqn:Hneg; cbn [fl_neg Z.opp];
    (destruct (fl_add _ _) as [y|] eqn:Hy; [|exact I]); cbn [fl_add] in Hy; apply mk_fl_isneg in Hy.
  - rewrite fl_trunc_ceil by (rewrite Hy; nia). destruct (fl_ceil_Z y); [apply int_res_rel|exact I].
  - rewrite fl_trunc_floor by (rewrite Hy; nia). destruct (fl_floor_Z y); [apply int_res_rel|exact I].
Qed.


Lemma fl_smaller_min x y : fl_smaller x y = fl_min x y.
Proof.
  unfold fl_smaller, fl_min, fl_ltb. rewrite (fl_cmp_flip x y).
  destruct x as [| a | a | m1 e1], y as [| c | c | m2 e2]; cbn [fl_finite andb]; try reflexivity.
  - cbn. destruct a, c; reflexivity.
  - cbn. destruct (m2 <? 0)%Z; reflexivity.
  - cbn. destruct (m1 <? 0)%Z; reflexivity.
  - cbn [fl_is_zero andb]. destruct (fl_cmp (FFin m1 e1) (FFin m2 e2)) as [[]|]; reflexivity.
Qed.

Lemma fl_larger_max x y : fl_larger x y = fl_max x y.
Proof.
  unfold fl_larger, fl_max, fl_ltb.
  destruct x as [| a | a | m1 e1], y as [| c | c | m2 e2]; cbn [fl_finite andb]; try reflexivity.
  - cbn. destruct a, c; reflexivity.
  - cbn. destruct (m2 <? 0)%Z; reflexivity.
  - cbn. destruct (m1 <? 0)%Z; reflexivity.
  - cbn [fl_is_zero andb]. destruct (fl_cmp (FFin m1 e1) (FFin m2 e2)) as [[]|]; reflexivity.
Qed.

Lemma float2_rel h h' a c : (forall x y, h x y = h' x y) ->
  orel (r <- (x <- number_of a ;; y <- number_of c ;; r <- float_result (h x y) ;; Ok (RValue r)) ;; Ok (fres_of r))
       (x <- to_float a ;; y <- to_float c ;; r <- of_fl (h' x y) ;; Ok (FVal r)).
Proof.
  intros Hh. apply number_arg_rel. intros x. apply number_arg_rel. intros y.
  rewrite Hh. destruct (h' x y); cbn; [reflexivity | exact I].
Qed.

Lemma zmin_ltb x y : Z.min x y = if (x <? y)%Z then x else y.
Proof. destruct (Z.ltb_spec x y); lia. Qed.
Lemma zmax_gtb x y : Z.max x y = if (x >? y)%Z then x else y.
Proof. rewrite Z.gtb_ltb. destruct (Z.ltb_spec y x); lia. Qed.


Lemma contains_infix t s : contains s t = is_infix (length s) t s.
Proof.
  unfold contains. induction s as [|c r IH]; cbn [suffixes existsb length is_infix].
  - rewrite orb_false_r. reflexivity.
  - rewrite IH. reflexivity.
Qed.


Lemma range_count_step i lim step : (0 < step)%Z -> (i < lim)%Z ->
  range_count i lim step = S (range_count (i + step) lim step).
Proof.
  intros Hs Hi. unfold range_count.
  destruct (Z.ltb_spec i lim); [|lia].
  assert (Hq : ((lim - i + step - 1) / step = (lim - (i + step) + step - 1) / step + 1)%Z).
  { replace (lim - i + step - 1)%Z with ((lim - (i + step) + step - 1) + 1 * step)%Z by lia.
    rewrite Z.div_add by lia. reflexivity. }
  destruct (Z.ltb_spec (i + step) lim).
  - rewrite Hq.
    assert (Hnn : (0 <= (lim - (i + step) + step - 1) / step)%Z) by (apply Z.div_pos; lia).
    lia.
  - (* the next element is not below the limit: exactly one element *)
    assert (Hz : ((lim - (i + step) + step - 1) / step = 0)%Z) by (apply Z.div_small; lia).
    rewrite Hq, Hz. reflexivity.
Qed.

Lemma range_values_nil i lim step : (lim <= i)%Z -> range_values i lim step = [].
Proof. intros H. unfold range_values, range_count. destruct (Z.ltb_spec i lim); [lia | reflexivity]. Qed.

Lemma range_values_cons i lim step : (0 < step)%Z -> (i < lim)%Z ->
  range_values i lim step = VInt i :: range_values (i + step) lim step.
Proof.
  intros Hs Hi. unfold range_values. rewrite (range_count_step i lim step Hs Hi).
  cbn [seq map]. f_equal; [f_equal; lia|].
  rewrite <- seq_shift, map_map. apply map_ext. intros k. f_equal. lia.
Qed.

(* the loop of funcRange with enough iterations: as many as there are elements *)
Lemma range_list_count step : (0 < step)%Z -> forall n i lim, (range_count i lim step <= n)%nat ->
  range_list n i lim step = range_values i lim step.
Proof.
  intros Hs. induction n as [|n IH]; intros i lim Hn; cbn [range_list].
  - destruct (Z.ltb_spec i lim).
    + rewrite (range_count_step i lim step Hs H) in Hn. lia.
    + rewrite range_values_nil; [reflexivity | lia].
  - destruct (Z.ltb_spec i lim).
    + rewrite (range_values_cons i lim step Hs H). f_equal. apply IH.
      rewrite (range_count_step i lim step Hs H) in Hn. lia.
    + rewrite range_values_nil; [reflexivity | lia].
Qed.

Lemma range_count_le_span i lim : (range_count i lim 1 <= Z.to_nat (lim - i))%nat.
Proof.
  unfold range_count. destruct (Z.ltb_spec i lim); [|lia].
  replace (lim - i + 1 - 1)%Z with (lim - i)%Z by lia. rewrite Z.div_1_r. lia.
Qed.

Lemma range_count_le_quot i lim step : (0 < step)%Z ->
  (range_count i lim step <= Z.to_nat ((lim - i) / step + 1))%nat.
Proof.
  intros Hs. unfold range_count. destruct (Z.ltb_spec i lim); [|lia].
  apply Z2Nat.inj_le.
  - apply Z.div_pos; lia.
  - assert (0 <= (lim - i) / step)%Z by (apply Z.div_pos; lia). lia.
  - replace ((lim - i) / step + 1)%Z with ((lim - i + 1 * step) / step)%Z by (rewrite Z.div_add by lia; reflexivity).
    apply Z.div_le_mono; lia.
Qed.


Lemma null_or_undef_nullish v : null_or_undef v = is_nullish v.
Proof. destruct v; reflexivity. Qed.

(* apply_func on each name of the table: the chain of name tests reduces by computation *)
Lemma af_isNonnull args : apply_func (fn_name FIsNonnull) args =
  match args with [v] => Ok (FVal (VBool (negb (is_nullish v)))) | _ => Err e_func end.
Proof. reflexivity. Qed.
Lemma af_length args : apply_func (fn_name FLength) args =
  match args with [VList _ l] => Ok (FVal (VInt (Z.of_nat (length l)))) | _ => Err e_type end.
Proof. reflexivity. Qed.
Lemma af_keys args : apply_func (fn_name FKeys) args =
  match args with [VMap _ m] => Ok (FNewList (map (fun kv => VStr (fst kv)) m)) | _ => Err e_type end.
Proof. reflexivity. Qed.
Lemma af_augmentMap args : apply_func (fn_name FAugmentMap) args =
  match args with
  | [VMap _ m1; VMap _ m2] => Ok (FNewMap (fold_left (fun acc kv => map_set acc (fst kv) (snd kv)) m2 m1))
  | _ => Err e_type
  end.
Proof. reflexivity. Qed.
Lemma af_round args : apply_func (fn_name FRound) args =
  match args with
  | [v] => x <- to_float v ;; round_impl x
  | [v; VInt d] => x <- to_float v ;; if (d =? 0)%Z then round_impl x else OutOfModel
  | [_; _] => Err e_type
  | _ => Err e_func
  end.
Proof. reflexivity. Qed.
Lemma af_floor args : apply_func (fn_name FFloor) args =
  match args with
  | [VInt z] => Ok (FVal (VInt z))
  | [v] => x <- to_float v ;; match fl_floor_Z x with Some z => Ok (FVal (VInt (wrap64 z))) | None => OutOfModel end
  | _ => Err e_func
  end.
Proof. reflexivity. Qed.
Lemma af_ceiling args : apply_func (fn_name FCeiling) args =
  match args with
  | [VInt z] => Ok (FVal (VInt z))
  | [v] => x <- to_float v ;; match fl_ceil_Z x with Some z => Ok (FVal (VInt (wrap64 z))) | None => OutOfModel end
  | _ => Err e_func
  end.
Proof. reflexivity. Qed.
Lemma af_min args : apply_func (fn_name FMin) args =
  match args with
  | [VInt x; VInt y] => Ok (FVal (VInt (if (x <? y)%Z then x else y)))
  | [a; c] => x <- to_float a ;; y <- to_float c ;; r <- of_fl (fl_min x y) ;; Ok (FVal r)
  | _ => Err e_func
  end.
Proof. reflexivity. Qed.
Lemma af_max args : apply_func (fn_name FMax) args =
  match args with
  | [VInt x; VInt y] => Ok (FVal (VInt (if (x >? y)%Z then x else y)))
  | [a; c] => x <- to_float a ;; y <- to_float c ;; r <- of_fl (fl_max x y) ;; Ok (FVal r)
  | _ => Err e_func
  end.
Proof. reflexivity. Qed.
Lemma af_randomInt args : apply_func (fn_name FRandomInt) args =
  match args with
  | [VInt n] => if (n <=? 0)%Z then Err e_func else OutOfModel
  | _ => Err e_type
  end.
Proof. reflexivity. Qed.
Lemma af_strContains args : apply_func (fn_name FStrContains) args =
  match args with
  | [VStr s; VStr t] => Ok (FVal (VBool (is_infix (length s) t s)))
  | _ => Err e_type
  end.
Proof. reflexivity. Qed.
Lemma af_range args : apply_func (fn_name FRange) args =
  match args with
  | [VInt lim] => Ok (FNewList (range_list (Z.to_nat lim) 0 lim 1))
  | [VInt i; VInt lim] => Ok (FNewList (range_list (Z.to_nat (lim - i)) i lim 1))
  | [VInt i; VInt lim; VInt step] =>
      if (step <=? 0)%Z then Err e_range
      else Ok (FNewList (range_list (Z.to_nat ((lim - i) / step + 1)) i lim step))
  | _ => Err e_type
  end.
Proof. reflexivity. Qed.
Lemma af_hasData args : apply_func (fn_name FHasData) args = Ok (FVal (VBool true)).
Proof. reflexivity. Qed.

Lemma orel_impl_eq {A} (so io io' : outcome A) : io = io' -> orel so io' -> orel so io.
Proof. intros ->. auto. Qed.

Ltac err_ok := solve [ cbn; eauto | exact I | reflexivity ].

Theorem apply_rel f args :
  orel (r <- apply_fn_spec f args ;; Ok (fres_of r)) (apply_func (fn_name f) args).
Proof.
  destruct f.
  - (* isNonnull *) eapply orel_impl_eq; [apply af_isNonnull|]. destruct args as [|v [|? ?]]; try err_ok.
    all: destruct v; reflexivity.
  - (* length *) eapply orel_impl_eq; [apply af_length|]. destruct args as [|v [|? ?]]; try err_ok.
    all: destruct v; err_ok.
  - (* keys *) eapply orel_impl_eq; [apply af_keys|]. destruct args as [|v [|? ?]]; try err_ok.
    all: destruct v; err_ok.
  - (* augmentMap *) eapply orel_impl_eq; [apply af_augmentMap|]. destruct args as [|v [|v2 [|? ?]]]; try err_ok.
    all: destruct v; try err_ok; destruct v2; err_ok.
  - (* round *) eapply orel_impl_eq; [apply af_round|]. destruct args as [|v [|v2 [|? ?]]]; try err_ok.
    + apply number_arg_rel, round_rel.
    + destruct v2; try (destruct v; err_ok).
      apply number_arg_rel. intros x. destruct (z =? 0)%Z; [apply round_rel|exact I].
    + destruct v2; try err_ok; destruct v; err_ok.
  - (* floor *) eapply orel_impl_eq; [apply af_floor|]. destruct args as [|v [|? ?]]; try err_ok; destruct v; try err_ok.
    cbn. destruct (fl_floor_Z f); [apply int_res_rel|exact I].
  - (* ceiling *) eapply orel_impl_eq; [apply af_ceiling|]. destruct args as [|v [|? ?]]; try err_ok; destruct v; try err_ok.
    cbn. destruct (fl_ceil_Z f); [apply int_res_rel|exact I].
  - (* min *) eapply orel_impl_eq; [apply af_min|]. destruct args as [|a [|c [|? ?]]]; try err_ok.
    + destruct a; err_ok.
    + destruct a, c; try apply (float2_rel _ _ _ _ fl_smaller_min). cbn. rewrite zmin_ltb. reflexivity.
    + destruct a; try err_ok; destruct c; err_ok.
  - (* max *) eapply orel_impl_eq; [apply af_max|]. destruct args as [|a [|c [|? ?]]]; try err_ok.
    + destruct a; err_ok.
    + destruct a, c; try apply (float2_rel _ _ _ _ fl_larger_max). cbn. rewrite zmax_gtb. reflexivity.
    + destruct a; try err_ok; destruct c; err_ok.
  - (* randomInt *) eapply orel_impl_eq; [apply af_randomInt|]. destruct args as [|v [|? ?]]; try err_ok.
    all: destruct v; try err_ok; cbn; destruct (z <=? 0)%Z; err_ok.
  - (* strContains *) eapply orel_impl_eq; [apply af_strContains|]. destruct args as [|a [|c [|? ?]]]; try err_ok.
    all: destruct a; try err_ok; destruct c; try err_ok; cbn; rewrite contains_infix; reflexivity.
  - (* range *) eapply orel_impl_eq; [apply af_range|]. destruct args as [|a [|c [|d [|? ?]]]]; try err_ok.
    + destruct a; try err_ok.
      cbn [apply_fn_spec bind fres_of]. rewrite (range_list_count 1 eq_refl); [reflexivity|].
      pose proof (range_count_le_span 0 z). rewrite Z.sub_0_r in H. exact H.
    + destruct a; try err_ok; destruct c; try err_ok.
      cbn [apply_fn_spec bind fres_of]. rewrite (range_list_count 1 eq_refl); [reflexivity | apply range_count_le_span].
    + destruct a; try err_ok; destruct c; try err_ok; destruct d; try err_ok.
      cbn [apply_fn_spec]. destruct (Z.leb_spec z1 0); [err_ok|].
      cbn [bind fres_of]. rewrite (range_list_count z1); [reflexivity | lia | apply range_count_le_quot; lia].
    + destruct a; try err_ok; destruct c; try err_ok; destruct d; err_ok.
  - (* hasData *) eapply orel_impl_eq; [apply af_hasData|]. reflexivity.
Qed.

(* ---- the converse of fn_arities_table: the regenerated table holds no name the Spec does not specify ---- *)

Definition arities_eqb (a c : list N) : bool := if list_eq_dec N.eq_dec a c then true else false.

(* the finite check on soyhtml.Funcs as tablegen reads it on this run: every entry is a function of
   Spec/Expr.v with the Spec's arities.  A function added to (or an arity changed in) the Go table
   makes this computation return false. *)
Lemma html_funcs_specified :
  forallb (fun p => match fn_of_name (fst p) with
                    | Some f => arities_eqb (snd p) (map N.of_nat (fn_arities f))
                    | None => false
                    end) html_funcs = true.
Proof. vm_compute. reflexivity. Qed.

Lemma fn_of_name_sound name f : fn_of_name name = Some f -> fn_name f = name.
Proof.
  unfold fn_of_name. intros H. apply find_some in H as [_ H].
  destruct (bstr_eqb_spec name (fn_name f)); [congruence | discriminate].
Qed.

Lemma fn_of_name_complete f : fn_of_name (fn_name f) = Some f.
Proof. destruct f; vm_compute; reflexivity. Qed.

Theorem function_table_complete name ar : func_arities name = Some ar ->
  exists f, fn_of_name name = Some f /\ fn_name f = name /\ ar = map N.of_nat (fn_arities f).
Proof.
  unfold func_arities. intros H. apply assoc_s_In in H.
  pose proof html_funcs_specified as Hs. rewrite forallb_forall in Hs. specialize (Hs _ H). cbn [fst snd] in Hs.
  destruct (fn_of_name name) as [f|] eqn:Hf; [|discriminate].
  exists f. split; [reflexivity|]. split; [apply fn_of_name_sound; exact Hf|].
  unfold arities_eqb in Hs. destruct (list_eq_dec N.eq_dec ar (map N.of_nat (fn_arities f))); [assumption | discriminate].
Qed.

(* every callable name of the regenerated table, on every argument list, behaves as the Spec of the
   function it names *)
Theorem function_table_spec name ar args : func_arities name = Some ar ->
  exists f, fn_of_name name = Some f /\ fn_name f = name /\ ar = map N.of_nat (fn_arities f) /\
            orel (r <- apply_fn_spec f args ;; Ok (fres_of r)) (apply_func name args).
Proof.
  intros H. destruct (function_table_complete name ar H) as (f & Hf & Hn & Har).
  exists f. repeat split; try assumption. rewrite <- Hn. apply apply_rel.
Qed.
