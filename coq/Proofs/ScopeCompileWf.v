(* C02, parser shape, part 4: the same conclusion for Model/Compile.v's [compile] (C13's model of
   Bundle.Compile: parse results -> Registry.Add per file -> CheckDataRefs with the Go map order of
   MapLiteralNode.Children as a parameter -> SetGlobals -> ProcessMessages), the model the registry
   theorems of this property (registry_lookup_exact ...) are about.

   The bridge of ScopeParseWf.v ([gbridge]) is over an abstract "accepted" predicate closed under
   the command children; its instance here is "check_node accepts the node in some state with some
   budget", for ANY children order [ko]. *)
From Coq Require Import Lia.
From Soy Require Import Model.Bytes Model.Values Model.Outcome Model.Ast Model.Token Generated.Tables
  Model.Parser Model.ExprParser Model.MsgId Model.Compile Spec.Cmd
  Proofs.CompilePermProofs Proofs.ScopeRegistry Proofs.ScopeExprWf Proofs.ScopeParseShape Proofs.ScopeParseWf.
Open Scope N_scope.

Section CK.
Variable ko : korder.
Variable lookup : bstr -> option template.
Variable params : list bstr.
Notation cn := (check_node ko lookup params).
Notation walker := (tcs -> node -> check_err + tcs).

Definition w_grows (w : walker) : Prop :=
  forall st n st', w st n = inr st' -> (length (tc_vars st) <= length (tc_vars st'))%nat.

Lemma seq_grows (w : walker) : w_grows w -> forall l st st', check_seq w st l = inr st' ->
  (length (tc_vars st) <= length (tc_vars st'))%nat.
Proof.
  intros Hw. induction l as [|x r IH]; intros st st' H; cbn [check_seq] in H; [injection H as <-; lia|].
  destruct (w st x) as [e|st1] eqn:E; [discriminate|]. pose proof (Hw _ _ _ E). pose proof (IH _ _ H). lia.
Qed.
Lemma pop_len initial st st' : (initial <= length (tc_vars st))%nat -> pop_block initial st = inr st' ->
  length (tc_vars st') = initial.
Proof.
  unfold pop_block. intros Hl H. destruct (map _ _); [|discriminate]. injection H as <-. cbn [tc_vars]. rewrite skipn_length. lia.
Qed.
Lemma block_len (w : walker) : w_grows w -> forall st n st', check_block ko w st n = inr st' ->
  length (tc_vars st') = length (tc_vars st).
Proof.
  intros Hw st n st' H. unfold check_block in H. destruct (check_seq w st (children ko n)) as [e|st1] eqn:E; [discriminate|].
  apply (pop_len _ _ _ (seq_grows w Hw _ _ _ E) H).
Qed.
Lemma mark_used_len key : forall vs vs', mark_used key vs = Some vs' -> length vs' = length vs.
Proof.
  induction vs as [|v r IH]; intros vs' H; cbn [mark_used] in H; [discriminate|].
  destruct (bstr_eqb _ _); [injection H as <-; reflexivity|].
  destruct (mark_used key r) as [r'|] eqn:E; [|discriminate]. injection H as <-. cbn [length]. rewrite (IH r' eq_refl). reflexivity.
Qed.
Lemma visit_key_len' st key st' : Compile.visit_key params st key = inr st' -> length (tc_vars st') = length (tc_vars st).
Proof.
  unfold Compile.visit_key. destruct (bstr_eqb key k_ij); [intros [= <-]; reflexivity|].
  destruct (mark_used key (tc_vars st)) as [vs|] eqn:E; [intros [= <-]; cbn; apply (mark_used_len _ _ _ E)|].
  destruct (mem_s key params); [intros [= <-]; reflexivity | discriminate].
Qed.
Lemma check_call_vars' st p name ad dat ps st' : Compile.check_call lookup params st p name ad dat ps = inr st' -> tc_vars st' = tc_vars st.
Proof.
  unfold Compile.check_call. destruct (lookup name); [|discriminate]. destruct (call_param_keys ps); [|discriminate].
  destruct (filter _ _); [|discriminate]. destruct dat; [intros [= <-]; reflexivity|].
  destruct (filter _ _); [intros [= <-]; reflexivity | discriminate].
Qed.

Lemma body_grows' (w : walker) : w_grows w -> w_grows (check_body ko lookup params w).
Proof.
  intros Hw st n st' H.
  destruct n; cbn [check_body] in H; try (rewrite (block_len w Hw _ _ _ H); lia).
  - destruct (Compile.check_loop_func _ _ _); [discriminate|]. rewrite (block_len w Hw _ _ _ H); lia.
  - destruct (Compile.visit_key _ _ _) as [e|st1] eqn:E; [discriminate|].
    rewrite (block_len w Hw _ _ _ H), (visit_key_len' _ _ _ E). lia.
  - destruct (w st n1) as [e|st1] eqn:E1; [discriminate|].
    destruct (w _ n2) as [e|st2] eqn:E2; [discriminate|].
    pose proof (Hw _ _ _ E1). pose proof (Hw _ _ _ E2) as H2. cbn [tc_vars Compile.push_var length] in H2.
    destruct ifempty as [ie|].
    + pose proof (Hw _ _ _ H) as H3. cbn [tc_vars] in H3. destruct (tc_vars st2); cbn [length tl] in *; lia.
    + injection H as <-. cbn [tc_vars]. destruct (tc_vars st2); cbn [length tl] in *; lia.
  - destruct (Compile.check_call _ _ _ _ _ _ _ _) as [e|st1] eqn:E; [discriminate|].
    rewrite (block_len w Hw _ _ _ H), (check_call_vars' _ _ _ _ _ _ _ E). lia.
  - destruct (bstr_eqb _ _); [discriminate|]. destruct (check_block _ _ _ _) as [e|st1] eqn:E; [discriminate|].
    injection H as <-. cbn [tc_vars Compile.push_var length]. rewrite (block_len w Hw _ _ _ E). lia.
  - destruct (bstr_eqb _ _); [discriminate|]. destruct (check_block _ _ _ _) as [e|st1] eqn:E; [discriminate|].
    injection H as <-. cbn [tc_vars Compile.push_var length]. rewrite (block_len w Hw _ _ _ E). lia.
  - discriminate.
Qed.

Theorem cn_grows fuel : w_grows (cn fuel).
Proof. induction fuel as [|f IH]; [intros st n st' H; discriminate | cbn [check_node]; apply body_grows'; exact IH]. Qed.

Definition acc (n : node) : Prop := exists fuel st st', cn fuel st n = inr st'.

Lemma seq_acc (w : walker) : forall l st st', check_seq w st l = inr st' ->
  forall x, In x l -> exists s1 s2, w s1 x = inr s2.
Proof.
  induction l as [|y r IH]; intros st st' H x Hx; [destruct Hx|]. cbn [check_seq] in H.
  destruct (w st y) as [e|st1] eqn:E; [discriminate|]. destruct Hx as [<-|Hx]; [exists st, st1; exact E | exact (IH _ _ H x Hx)].
Qed.
Lemma block_acc (w : walker) st n st' : check_block ko w st n = inr st' ->
  forall x, In x (children ko n) -> exists s1 s2, w s1 x = inr s2.
Proof. unfold check_block. destruct (check_seq w st (children ko n)) as [e|st1] eqn:E; [discriminate|]. intros _. exact (seq_acc w _ _ _ E). Qed.

Lemma body_acc (w : walker) st n st' : check_body ko lookup params w st n = inr st' ->
  forall x, In x (children ko n) -> exists s1 s2, w s1 x = inr s2.
Proof.
  intros H. destruct n; cbn [check_body] in H; try exact (block_acc w _ _ _ H); try (intros ? Hf; destruct Hf; fail).
  - destruct (Compile.check_loop_func _ _ _); [discriminate | exact (block_acc w _ _ _ H)].
  - destruct (Compile.visit_key _ _ _); [discriminate | exact (block_acc w _ _ _ H)].
  - destruct (w st n1) as [e|st1] eqn:E1; [discriminate|]. destruct (w _ n2) as [e|st2] eqn:E2; [discriminate|].
    intros y Hy. cbn [children] in Hy. destruct Hy as [<-|[<-|Hy]]; [eexists; eexists; exact E1 | eexists; eexists; exact E2|].
    destruct ifempty as [ie|]; [|destruct Hy]. destruct Hy as [<-|[]]. eexists; eexists; exact H.
  - destruct (Compile.check_call _ _ _ _ _ _ _ _); [discriminate | exact (block_acc w _ _ _ H)].
  - destruct (bstr_eqb _ _); [discriminate|]. destruct (check_block _ _ _ _) as [e|st1] eqn:E; [discriminate|]. exact (block_acc w _ _ _ E).
  - destruct (bstr_eqb _ _); [discriminate|]. destruct (check_block _ _ _ _) as [e|st1] eqn:E; [discriminate|]. exact (block_acc w _ _ _ E).
Qed.

Lemma acc_children n x : acc n -> In x (children ko n) -> acc x.
Proof.
  intros (fuel & st & st' & H) Hx. destruct fuel as [|f]; [discriminate|]. cbn [check_node] in H.
  destruct (body_acc (cn f) _ _ _ H x Hx) as (s1 & s2 & E). exists f, s1, s2. exact E.
Qed.

Lemma acc_kids n x : acc n -> In x (cmd_kids n) -> acc x.
Proof.
  intros Ha Hx. destruct n; cbn [cmd_kids In] in Hx; try contradiction;
    try (apply (acc_children _ x Ha); cbn [children]; rewrite ?in_app_iff; cbn [In]; tauto).
  - (* NMsgPlural: the default is a block of its own *) apply in_app_or in Hx. destruct Hx as [Hx|Hx].
    + apply (acc_children _ x Ha). cbn [children In]. rewrite in_app_iff. tauto.
    + apply (acc_children (NList p default) x); [|exact Hx].
      apply (acc_children _ _ Ha). cbn [children In]. rewrite in_app_iff. cbn [In]. tauto.
  - apply (acc_children (NList p body) x); [|exact Hx].
    apply (acc_children _ _ Ha). left. reflexivity.
Qed.

(* a let as the only child of a placeholder is never used: not accepted *)
Lemma acc_placeholder p nm x : acc (NMsgPlaceholder p nm x) -> sp_is_let x = false.
Proof.
  intros (fuel & st & st' & H). destruct (sp_is_let x) eqn:El; [|reflexivity]. exfalso.
  destruct fuel as [|f]; [discriminate|]. cbn [check_node check_body] in H. unfold check_block in H. cbn [children check_seq] in H.
  destruct (cn f st x) as [e|st1] eqn:E; [discriminate|].
  assert (Hv : exists b0 vs, tc_vars st1 = b0 :: vs /\ vb_let b0 = true /\ vb_used b0 = false /\ length vs = length (tc_vars st)).
  { destruct f as [|f']; [discriminate|]. cbn [check_node] in E.
    destruct x; try discriminate; cbn [check_body] in E;
      (destruct (bstr_eqb _ _); [discriminate|]; destruct (check_block _ _ _ _) as [e|st2] eqn:E2; [discriminate|];
       injection E as <-; eexists; eexists; cbn [tc_vars Compile.push_var]; split; [reflexivity|]; split; [reflexivity|]; split; [reflexivity|];
       exact (block_len _ (cn_grows f') _ _ _ E2)). }
  destruct Hv as (b0 & vs & Ev & Hl & Hu & Hlen). unfold pop_block in H. rewrite Ev in H. cbn [length] in H. rewrite Hlen in H.
  replace (S (length (tc_vars st)) - length (tc_vars st))%nat with 1%nat in H by lia.
  cbn [firstn rev app filter map] in H. rewrite Hl, Hu in H. cbn [andb negb map] in H. discriminate.
Qed.

Theorem accepted_bridged n : no_stray n = true -> acc n -> bridged n.
Proof. intros Hs Ha. exact (gbridge acc acc_kids acc_placeholder (csz n) n (le_n _) Hs Ha). Qed.
End CK.

Definition parsed_sfile (f : sfile) : Prop :=
  exists inlen lexq unq ts p p', po_result (soy_file inlen lexq unq ts) = POk (NList p (sfile_body f)) p'.
Definition sfile_grammar (f : sfile) : bool :=
  forallb (fun x => match x with NTemplate _ _ b _ _ => no_stray b | _ => true end) (sfile_body f).

Lemma span_headers_suffix nodes : exists pre, nodes = pre ++ snd (span_headers nodes).
Proof.
  induction nodes as [|x r IH]; [exists []; reflexivity|]. cbn [span_headers].
  destruct (is_header_param x); [|exists []; reflexivity]. destruct IH as [pre E].
  destruct (span_headers r) as [hs rest]. cbn [snd] in *. exists (x :: pre). cbn [app]. rewrite <- E. reflexivity.
Qed.

Lemma first_failure_none {E} (f : template -> option E) ts : first_failure f ts = None -> forall t, In t ts -> f t = None.
Proof.
  induction ts as [|t0 r IH]; intros H t Ht; [destruct Ht|]. cbn [first_failure] in H.
  destruct (f t0) eqn:E0; [discriminate|]. destruct Ht as [<-|Ht]; [exact E0 | exact (IH H t Ht)].
Qed.

(* FULL statement (false of the faithful model: ScopeParseWf / Properties/C02.v compiled_registry_wf_refuted):
     compile ns o gl srcs = COk cp, every source a result of parse.SoyFile -> wf_registry (cp_reg cp) = true.
   Proved under [sfile_grammar]. *)
Theorem compile_registry_wf node_string o gl srcs cp :
  compile node_string o gl srcs = COk cp ->
  (forall f, In (SrcOk f) srcs -> parsed_sfile f) ->
  (forall f, In (SrcOk f) srcs -> sfile_grammar f = true) ->
  wf_registry (cp_reg cp) = true.
Proof.
  intros Hc Hp Hg. unfold compile, compile_gen in Hc.
  destruct (bg_err _) as [[? ?]|]; [discriminate|].
  destruct (add_all_files empty_creg srcs) as [r|e] eqn:Hadd; [|discriminate].
  destruct (first_failure (check_template _ _) _) as [[? ?]|] eqn:Hchk; [discriminate|].
  destruct (first_failure (set_globals_template _ _) _) as [[? ?]|]; [discriminate|].
  injection Hc as <-. cbn [cp_reg].
  unfold wf_registry. apply forallb_forall. intros t Ht.
  (* the registry's templates are those the files declare *)
  destruct (registry_lookup_exact srcs r Hadd) as (fs & Hs & Hnd & Hlook).
  assert (Hin : In t (all_ts fs)).
  { pose proof Hadd as Ha. rewrite Hs in Ha. apply CompilePermProofs.add_files_ok in Ha; [|apply reg_inv_empty].
    destruct Ha as (_ & ->). exact Ht. }
  pose proof (proj2 (Hlook (t_name t) t) (conj Hin eq_refl)) as Hfind.
  destruct (found_template_declared srcs r Hadd _ _ Hfind) as (f & l1 & p & lp & nodes & ae & priv & l2 & Hf & Hb & Hn & _).
  rewrite Hn.
  destruct (Hp f Hf) as (inlen & lexq & unq & toks & p0 & p' & Hparse).
  pose proof (proj1 (soy_file_shape _ _ _ _ _ _ Hparse)) as Hshape. cbn [pwf] in Hshape.
  rewrite Hb in Hshape. rewrite forallb_app in Hshape. apply andb_true_iff in Hshape as [_ Hshape].
  cbn [forallb pwf] in Hshape. apply andb_true_iff in Hshape as [Hshape _].
  pose proof (Hg f Hf) as Hgr. unfold sfile_grammar in Hgr. rewrite Hb, forallb_app in Hgr.
  apply andb_true_iff in Hgr as [_ Hgr]. cbn [forallb no_stray] in Hgr. apply andb_true_iff in Hgr as [Hgr _].
  destruct (span_headers_suffix nodes) as [pre E]. rewrite E in Hshape, Hgr.
  apply forallb_suffix in Hshape. apply forallb_suffix in Hgr.
  pose proof (first_failure_none _ _ Hchk t Ht) as Hacc. unfold check_template in Hacc.
  destruct (check_node _ _ _ _ _ (t_node t)) as [e|st'] eqn:Ecn; [discriminate|].
  rewrite Hn in Ecn.
  assert (Ha : acc (o_children (repaired_orders o)) (find_template (r_templates (cr_reg r))) (map fst (t_params t))
                   (NList lp (snd (span_headers nodes)))).
  { eapply acc_kids; [eexists; eexists; eexists; exact Ecn | left; reflexivity]. }
  change (wf KCmd (NList lp (snd (span_headers nodes))) = true).
  apply (bridged_block _ (accepted_bridged _ _ _ (NList lp (snd (span_headers nodes))) Hgr Ha)). exact Hshape.
Qed.
