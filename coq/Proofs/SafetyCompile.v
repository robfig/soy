(* C06: the registries Bundle.Compile builds satisfy [reg_ok].
   Registry.Add is Model/Compile.v's [registry_add] (the tree after the repair that
   rejects a template name already registered; tied to the Go code by C13's harness).
   What it takes from the parser is stated as a hypothesis on each file:
   [file_pos_ok] -- every node of a template lies inside the file's text. *)
From Coq Require Import Lia ZifyBool.
From Soy Require Import Model.Bytes Model.Num Model.Values Model.Outcome Model.Ast Model.MsgId Model.Compile
  Spec.Safety Proofs.BytesBase Proofs.ValueProofs Proofs.CompilePermProofs Proofs.InterpSub Proofs.SafetyNodes.
Open Scope N_scope.

Definition file_pos_ok (f : sfile) : bool :=
  forallb (fun n => if is_template n then node_all (pos_le (N.of_nat (length (sfile_text f)))) n else true)
          (sfile_body f).

(* ---- names_unique is NoDup ---- *)
Lemma existsb_beqb x l : existsb (bstr_eqb x) l = true <-> In x l.
Proof.
  rewrite existsb_exists. split.
  - intros (y & Hy & E). apply bstr_eqb_eq in E. subst. exact Hy.
  - intros H. exists x. split; [exact H | apply bstr_eqb_refl].
Qed.
Lemma names_unique_NoDup l : names_unique l = true <-> NoDup l.
Proof.
  induction l as [|x r IH]; cbn [names_unique]; [split; [constructor | reflexivity]|].
  rewrite andb_true_iff, negb_true_iff, IH. split.
  - intros [H1 H2]. constructor; [|exact H2]. intros Hin. apply existsb_beqb in Hin. congruence.
  - intros H. inversion H as [|? ? Hn Hd]; subst. split; [|exact Hd].
    destruct (existsb (bstr_eqb x) r) eqn:E; [apply existsb_beqb in E; contradiction | reflexivity].
Qed.

(* ---- the template a unit carries keeps the positions of the template node it comes from ---- *)
Lemma span_headers_rest nodes : forall hs rest, span_headers nodes = (hs, rest) -> forall x, In x rest -> In x nodes.
Proof.
  induction nodes as [|n r IH]; cbn [span_headers]; intros hs rest H x Hx.
  - injection H as <- <-. exact Hx.
  - destruct (is_header_param n).
    + destruct (span_headers r) as [hs' rest'] eqn:E. injection H as <- <-. right. eapply IH; eauto.
    + injection H as <- <-. exact Hx.
Qed.

Lemma template_local_node_all B fn ns ae prev tn u :
  template_local fn ns ae prev tn = inr u -> node_all (pos_le B) tn = true ->
  node_all (pos_le B) (t_node (tu_template u)) = true.
Proof.
  unfold template_local. destruct tn; try discriminate. destruct tn; try discriminate.
  destruct prev as [pv|]; [|discriminate].
  destruct (span_headers nodes) as [hs rest] eqn:Es.
  intros H Hn.
  assert (Hu : t_node (tu_template u) = NTemplate p name (NList p0 rest) autoescape private).
  { destruct hs as [|h hs']; [injection H as <-; reflexivity|].
    destruct (match pv with NSoyDoc _ ps => ps | _ => [] end); [injection H as <-; reflexivity | discriminate]. }
  rewrite Hu. cbn [node_all] in Hn |- *. split_andb.
  change (pos_le B (NTemplate p name (NList p0 rest) autoescape private)) with (pos_le B (NTemplate p name (NList p0 nodes) autoescape private)).
  change (pos_le B (NList p0 rest)) with (pos_le B (NList p0 nodes)).
  repeat (apply andb_true_intro; split); try assumption.
  apply forallb_forall. intros x Hx. eapply forallb_In; [eassumption|]. eapply span_headers_rest; eauto.
Qed.

Lemma file_units_origin fn ns ae body : forall prev u,
  In (inr u) (file_units fn ns ae prev body) ->
  exists pv tn, In tn body /\ is_template tn = true /\ template_local fn ns ae pv tn = inr u.
Proof.
  induction body as [|n r IH]; intros prev u Hin; cbn [file_units] in Hin; [contradiction|].
  apply in_app_or in Hin as [Hin|Hin].
  - destruct (is_template n) eqn:Et; [|contradiction]. destruct Hin as [Hin|[]].
    exists prev, n. split; [left; reflexivity | split; [exact Et | exact Hin]].
  - destruct (IH _ _ Hin) as (pv & tn & H1 & H2 & H3). exists pv, tn. split; [right; exact H1 | split; assumption].
Qed.

Lemma file_result_pos f ts pf t :
  file_pos_ok f = true -> file_result f = Some (ts, pf) -> In t ts ->
  node_all (pos_le (N.of_nat (length (sfile_text f)))) (t_node t) = true.
Proof.
  intros Hpos Hr Hin. unfold file_result in Hr.
  destruct (find_namespace (sfile_body f)) as [e|[ns ae]]; [discriminate|].
  destruct (units_ok _) as [l|] eqn:El; [|discriminate]. injection Hr as <- _.
  apply in_map_iff in Hin as (u & <- & Hu).
  pose proof (units_ok_In _ _ _ El Hu) as Hiu.
  destruct (file_units_origin _ _ _ _ _ _ Hiu) as (pv & tn & Htn & Hist & Hloc).
  eapply template_local_node_all; [exact Hloc|].
  unfold file_pos_ok in Hpos. pose proof (forallb_In _ _ _ Hpos Htn) as Hp. cbn beta in Hp. rewrite Hist in Hp. exact Hp.
Qed.

(* ---- one Add ---- *)
Lemma assoc_s_const_map (ts : list template) (v : bstr) t :
  In t ts -> assoc_s (t_name t) (map (fun t => (t_name t, v)) ts) = Some v.
Proof.
  induction ts as [|x r IH]; [intros []|]. intros Hin. cbn [map assoc_s].
  destruct (bstr_eqb (t_name t) (t_name x)) eqn:E; [reflexivity|].
  destruct Hin as [->|Hin]; [rewrite bstr_eqb_refl in E; discriminate | apply IH, Hin].
Qed.
Lemma assoc_s_name_file_some (ts : list template) t :
  In t ts -> exists v, assoc_s (t_name t) (map name_file ts) = Some v.
Proof.
  induction ts as [|x r IH]; [intros []|]. intros Hin. cbn [map assoc_s name_file fst].
  destruct (bstr_eqb (t_name t) (t_name x)) eqn:E; [eexists; reflexivity|].
  destruct Hin as [->|Hin]; [rewrite bstr_eqb_refl in E; discriminate | apply IH, Hin].
Qed.

Theorem registry_add_reg_ok r f r' :
  reg_inv (cr_reg r) -> reg_ok (cr_reg r) = true -> file_pos_ok f = true ->
  registry_add r f = inr r' ->
  reg_inv (cr_reg r') /\ reg_ok (cr_reg r') = true.
Proof.
  intros Hinv Hok Hpos Hadd.
  apply registry_add_ok in Hadd; [|exact Hinv]. destruct Hadd as (ts & pf & Hres & Hnd & Hfresh & ->).
  cbn [cr_reg]. split; [apply reg_inv_extend; exact Hinv|].
  unfold reg_ok in Hok |- *. apply andb_prop in Hok as [Hok Hp]. apply andb_prop in Hok as [Hu Hrec].
  set (reg := cr_reg r) in *.
  (* an old template has its entries, a new name has none *)
  assert (Hold : forall t, In t (r_templates reg) ->
            exists s fl, assoc_s (t_name t) (r_sources reg) = Some s /\ assoc_s (t_name t) (r_files reg) = Some fl).
  { intros t Ht. pose proof (forallb_In _ _ _ Hrec Ht) as H. unfold template_recorded in H.
    destruct (assoc_s (t_name t) (r_sources reg)) as [s|]; [|discriminate].
    destruct (assoc_s (t_name t) (r_files reg)) as [fl|]; [|discriminate]. eauto. }
  assert (Hnew_src : forall n, In n (map t_name ts) -> assoc_s n (r_sources reg) = None).
  { intros n Hn. apply assoc_s_None. rewrite Hinv. apply assoc_s_None. apply Hfresh. exact Hn. }
  repeat (apply andb_true_intro; split).
  - (* unique names *)
    apply names_unique_NoDup. cbn [reg_extend r_templates]. rewrite map_app. apply NoDup_app_iff.
    repeat split; [apply names_unique_NoDup; exact Hu | exact Hnd |].
    intros n H1 H2. apply in_map_iff in H1 as (t & <- & Ht).
    destruct (Hold t Ht) as (s & fl & _ & Hfl). rewrite (Hfresh _ H2) in Hfl. discriminate.
  - (* recorded *)
    apply forallb_forall. intros t Ht. cbn [reg_extend r_templates] in Ht. unfold template_recorded.
    cbn [reg_extend r_sources r_files]. rewrite !assoc_s_app.
    apply in_app_or in Ht as [Ht|Ht].
    + destruct (Hold t Ht) as (s & fl & -> & ->). reflexivity.
    + rewrite (Hnew_src _ (in_map t_name _ _ Ht)), (Hfresh _ (in_map t_name _ _ Ht)).
      rewrite (assoc_s_const_map ts (sfile_text f) t Ht). destruct (assoc_s_name_file_some ts t Ht) as [v ->]. reflexivity.
  - (* positions *)
    unfold reg_pos_ok. apply forallb_forall. intros t Ht. cbn [reg_extend r_templates] in Ht.
    unfold template_pos_ok. cbn [reg_extend r_sources]. rewrite assoc_s_app.
    apply in_app_or in Ht as [Ht|Ht].
    + destruct (Hold t Ht) as (s & fl & Hs & _). rewrite Hs.
      pose proof (forallb_In _ _ _ Hp Ht) as H. unfold template_pos_ok in H. rewrite Hs in H. exact H.
    + rewrite (Hnew_src _ (in_map t_name _ _ Ht)), (assoc_s_const_map ts (sfile_text f) t Ht).
      eapply file_result_pos; eauto.
Qed.

(* ---- the loop of Bundle.Compile ---- *)
Lemma add_all_files_reg_ok srcs : forall r r',
  reg_inv (cr_reg r) -> reg_ok (cr_reg r) = true ->
  (forall f, In (SrcOk f) srcs -> file_pos_ok f = true) ->
  add_all_files r srcs = COk r' -> reg_ok (cr_reg r') = true.
Proof.
  induction srcs as [|s rest IH]; intros r r' Hinv Hok Hpos H; cbn [add_all_files] in H.
  - injection H as <-. exact Hok.
  - destruct s as [f|name msg]; [|discriminate].
    destruct (registry_add r f) as [e|r1] eqn:Ea; [discriminate|].
    destruct (registry_add_reg_ok r f r1 Hinv Hok (Hpos f (or_introl eq_refl)) Ea) as [Hinv1 Hok1].
    apply (IH r1 r' Hinv1 Hok1); [|exact H]. intros g Hg. apply Hpos. right. exact Hg.
Qed.

Theorem compiled_reg_ok srcs r :
  (forall f, In (SrcOk f) srcs -> file_pos_ok f = true) ->
  add_all_files empty_creg srcs = COk r -> reg_ok (cr_reg r) = true.
Proof. intros Hpos H. eapply add_all_files_reg_ok; eauto; reflexivity. Qed.

(* Registry.Add has no recover of its own: its one indexing expression, Body[i-1], is never out of range *)
Theorem registry_add_never_panics r f : registry_add r f <> inl AEIndexCrash.
Proof. apply registry_add_no_crash. Qed.
