(* C11, call slots on the Go side: the walker with a message bundle (Model/MsgParts.v walk_b) IS the walker of
   Model/Interp.v on code without {msg} THAT MAY CALL templates, as long as no template of the registry contains a
   {msg} either -- same result, same state, for every fuel, state, bundle and plural selector.  (Proofs/MsgWalkEq.v
   has the call-free case, whose proof needs no hypothesis on the registry.)  Consequence: a translated message
   whose slots resolve to such code -- prints, html tags and {call}s of message-free templates -- is rendered, in the
   translation's order, by the plain walker on the resolved items. *)
From Coq Require Import List Lia Bool.
From Soy Require Import Model.Bytes Model.Num Model.Values Model.Outcome Model.Ast
  Model.Escape Model.Directives Model.Print Generated.Tables Model.Interp Model.MsgParts Spec.MsgCat
  Proofs.InterpLogic Proofs.InterpGuard Proofs.InterpRel Proofs.InterpExtProofs Proofs.MsgWalkEq Proofs.MsgPartsProofs Proofs.MsgCatProofs.
Import ListNotations.
Open Scope N_scope.

(* no {msg} other than the walker's own synthetic message node for the body of a plural case; calls allowed *)
Definition msgfree_c_g (n : node) : bool :=
  match n with
  | NMsg _ id m d _ => (id =? 0) && match m, d with [], [] => true | _, _ => false end
  | _ => true
  end.
Definition msgfree_c (n : node) : bool := deep msgfree_c_g n.

(* no template of the registry contains a {msg} *)
Definition reg_msgfree (cf : cfg) : Prop :=
  forall callee, In callee (r_templates (c_reg cf)) -> msgfree_c (t_node callee) = true.

Section WalkEqCalls.
Variable cf : cfg.
Hypothesis Hreg : reg_msgfree cf.

Variable plural_index : Z -> nat.
Variable bd : bundle.

Theorem walk_b_is_walk_calls : forall fuel n, msgfree_c n = true ->
  forall st, walk_b cf plural_index bd fuel n st = walk cf fuel n st.
Proof.
  apply (walk_b_is_walk_on cf plural_index bd cf msgfree_c_g); [|reflexivity|reflexivity|exact Hreg].
  intros p id m d b H. cbn [msgfree_c_g] in H. apply andb_true_iff in H. apply N.eqb_eq, H.
Qed.

Definition slots_msgfree (tr : list titem) : Prop :=
  Forall (fun i => match i with TPh _ _ body => msgfree_c body = true | TText _ => True end) tr.

Lemma run_items_walk_b fuel : forall tr, slots_msgfree tr ->
  forall st, run_items (walk_b cf plural_index bd fuel) tr st = run_items (walk cf fuel) tr st.
Proof.
  induction tr as [|i tr IH]; intros H st; [reflexivity|].
  inversion H as [|? ? Hi Htr]; subst. destruct i as [t|p name body]; cbn [run_items].
  - apply mbind_ext. intros x s. apply IH. exact Htr.
  - unfold mbind. rewrite walk_b_is_walk_calls by exact Hi.
    destruct (walk cf fuel body st) as [[v|e|e| | | ] s]; try reflexivity. apply IH. exact Htr.
Qed.

(* A TRANSLATED MESSAGE WITH CALL SLOTS, Go side: soyhtml's evalMsg with the catalogue entry tr, under the walker with
   the bundle, is the PLAIN walker of Model/Interp.v run over the translation's items -- every text segment where the
   translation puts it, every slot filled by walking the first placeholder of the message that carries the slot's
   name, be it a print, an html tag or a {call} of a template (any depth of further calls) *)
Theorem translation_plain_walker fuel mp id body tr :
  forallb flat_node body = true -> items_named body tr -> parts_clean (map item_part tr) ->
  bundle_message bd id = Some (new_message [] [msgstr_of tr]) ->
  slots_msgfree (map (resolve body) tr) ->
  forall st, eval_msg plural_index bd (walk_b cf plural_index bd fuel) mp id body st
             = run_items (walk cf fuel) (map (resolve body) tr) st.
Proof.
  intros Hflat Hnamed Hclean Hb Hslots st.
  rewrite (translation_places_values plural_index bd (walk_b cf plural_index bd fuel) mp id body tr Hflat Hnamed Hclean Hb).
  apply run_items_walk_b. exact Hslots.
Qed.

End WalkEqCalls.
