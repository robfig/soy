(* The model of the JavaScript generator (Model/JsGen.v) never crashes, whatever the budget: the only
   origin of a [Crash] is [jsc_bind] on an empty scope stack, and the walker
   keeps the scope stack balanced (every push is matched by a pop on every
   path), so that [jsc_bind] / [jsc_makevar] are only reached with a non-empty
   stack.  The Hoare triple [jnc] on the LENGTH of the scope stack, which also forbids
   [Crash] and [Diverge] but tolerates an exhausted budget, is an instance of [jlogic]
   (Proofs/SafetyJsFuel.v). *)
From Coq Require Import Lia.
From Soy Require Import Model.Bytes Model.Num Model.Values Model.Outcome Model.Ast Model.JsGen Spec.SafetyJs
  Proofs.SafetyJsFuel.

Definition jnc {A} (k k' : nat) (m : J A) : Prop :=
  forall st, length (j_scope st) = k ->
    match m st with
    | Ok (_, st') => length (j_scope st') = k'
    | Crash _ | Diverge => False
    | _ => True
    end.

Lemma jans_jnc {A} k k' (m : J A) : jans k k' m -> jnc k k' m.
Proof. intros H st Hl. specialize (H st). destruct (m st) as [[x st']| | | | |]; try exact I; exact (H Hl). Qed.

Lemma jnc_from {A B} k k1 k2 (R : A -> Prop) (m : J A) (f : A -> J B) :
  jnc k k1 m -> (forall st x st', m st = Ok (x, st') -> R x) -> (forall x, R x -> jnc k1 k2 (f x)) -> jnc k k2 (jbind m f).
Proof.
  intros Hm HR Hf st Hl. unfold jbind. specialize (Hm st Hl).
  destruct (m st) as [[x st']| | | | |] eqn:E; try exact I; try exact Hm. exact (Hf x (HR _ _ _ E) st' Hm).
Qed.

Lemma find_placeholder_nc f q name :
  match jfind_placeholder f q name with Crash _ | Diverge => False | _ => True end.
Proof.
  revert q. induction f as [|f IH]; intro q; cbn [jfind_placeholder]. exact I.
  destruct q as [|x r]. exact I.
  destruct x; try apply IH. destruct (bstr_eqb name0 name). exact I. apply IH.
Qed.

Lemma jnc_logic : jlogic True (fun A k k' m1 _ => jnc k k' m1).
Proof.
  constructor.
  - intros A k k' m. apply jans_jnc.
  - intros A B k k1 k2 m1 _ f1 _ Hm Hf. apply (jnc_from k k1 k2 (fun _ => True) m1 f1 Hm); [intros; exact I | intros x _; apply Hf].
  - intros A B k k1 k2 R m f1 _ Hm. apply jnc_from, jans_jnc, Hm.
  - intros k w1 _ n Hw st Hl. unfold jblock, jbind, jget. cbv beta iota.
    match goal with |- context [w1 n ?sub] => pose proof (Hw sub Hl) as Hs; destruct (w1 n sub) as [[u sub']| | | | |] end;
      try exact I; try exact Hs. exact Hl.
  - intros _ A k k' st _. exact I.
Qed.

Theorem nc_walk o fuel k n : jnc (S k) (S k) (jwalk o fuel n).
Proof.
  revert k n. induction fuel as [|f IH]; intros k n; cbn [jwalk]; [intros st _; exact I|].
  apply (phi_walk_body o _ _ jnc_logic (jwalk o f) (jwalk o f) (pred (jw_height n)) (fun k n _ => IH k n)). lia.
Qed.

(* soyjs.Write as a whole never panics *)
Theorem gen_file_no_crash : forall o fuel name body,
  match gen_file o fuel name body with Crash _ | Diverge => False | _ => True end.
Proof.
  intros o fuel name body. unfold gen_file, visit_file.
  pose proof (phi_file _ _ jnc_logic (jwalk o fuel) (jwalk o fuel) (jw_hmax body) (fun k n _ => nc_walk o fuel k n) 0%nat name body
                (le_n _) jinit_state eq_refl) as H.
  match type of H with match ?r with _ => _ end => destruct r as [[u st]| | | | |] end; try exact I; exact H.
Qed.
