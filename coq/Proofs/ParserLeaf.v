(* Consumption lemmas for the procedures of Model/Parser.v that call neither parseExpr nor
   itemList: parseAttrs, parseAutoescape, boolAttr, nextNonComment, the comment and text loops of
   textOrTag, parseSoyDoc, parseAlias, the name loops of parseNamespace and parseCall. *)
From Soy Require Import Model.Bytes Model.Ast Model.Token Model.NumLit Model.ExprParser Model.Parser.
From Soy Require Import Generated.Tables Proofs.ParserMeasure Proofs.ExprTotal Proofs.ParserBase.
From Coq Require Import ZifyBool Lia.
Open Scope N_scope.

Tactic Notation "cnext" ident(t) ident(s1) ident(R) :=
  apply c_next_step; [solve [auto]|]; intros t s1 R ?Hi; cbn beta.
(* split a cnrel into its facts (keeping the relation itself) *)
Ltac dcn R :=
  let R' := fresh "Rn" in let Es := fresh "Es" in
  pose proof R as (R' & Es);
  destruct R' as [?Ri ?Rtw ?Rpk ?Rpk1 ?Rcur ?Rl ?Rnz ?Rmu Rz ?Rbi ?Rbm ?Rbl Reof Rrest];
  clear Rz Reof Rrest.
(* use every known "type <> 0" fact *)
Ltac nzs := repeat match goal with Hnz : t_typ ?t <> 0, H : t_typ ?t <> 0 -> _ |- _ => specialize (H Hnz) end.
(* branch on the type of an item: [if tis t X then _ else _] *)
Ltac tcase t X E := unfold tis at 1; destruct (N.eqb_spec (t_typ t) X) as [E|E]; [|clear E].
(* cfin: a branch that returns COk -- the three conjuncts of cpost (invariant by auto, ckap = b by lia, Q by auto/lia).
   cerr: a branch that returns through unexpected / errorf.  cuse lem: a call in tail position whose cpost is lem.
   cexpect tk s1 H: a call of expect, bound to the rest of the procedure by cpost_bind; tk, s1 name what it returns. *)
Ltac cfin := nzs; cbn [cpost]; unfold kap in *;
  split; [solve [auto]|split; [lia|cbn beta; repeat (apply conj); auto; try lia]].
Ltac cerr := nzs; first [apply c_unexp_post; [solve [auto]|solve [auto]|unfold kap in *; lia]
                   |apply c_errorf_post; [solve [auto]|unfold kap in *; lia]].
Ltac cuse lem := nzs; eapply cpost_weaken; [apply lem; auto; unfold kap in *; try lia|]; intros; cbn beta in *; try first [lia|intuition lia].
Tactic Notation "cexpect" ident(tk) ident(s1) ident(H) :=
  nzs; eapply cpost_bind; [apply c_expect_post; [solve [auto]|vm_compute; intro; discriminate|unfold kap in *; lia]|];
  intros tk s1 ?Hi ?Hb H; cbn beta in H.

Section Leaf.
Variable inlen : N.
Variable NT : nat.
Variable eofchk : bool.
Variable unq : bstr -> option bstr.

Notation cinv := (cinv inlen NT eofchk).
Notation cnrel := (cnrel inlen NT eofchk).
Notation cpost := (cpost inlen NT eofchk).
Notation twf := (twf inlen).
Notation cmu s := (mu (c_p s)).
Notation clpz s := (lpz (c_p s)).
Notation ckap s := (kap (c_p s)).
Notation cpeek s := (p_peek (c_p s)).
Notation ccur s := (cur_tok (c_p s)).

Lemma twf_len1p t : twf t ->
  t_typ t = pit_DollarIdent \/ t_typ t = pit_DotIdent -> (1 <= length (t_val t))%nat.
Proof. intros H [E|E]; apply (twf_len1 inlen t H); [left|right; left]; exact E. Qed.

Lemma attrs_loop_ok : forall f allowed acc s b,
  cinv s -> ckap s = b -> (cmu s < f)%nat ->
  cpost b (fun _ s' => (cmu s' <= cmu s)%nat) (attrs_loop inlen unq f allowed acc s).
Proof.
  induction f as [|f IH]; intros allowed acc s b Hi Hb Hf; [lia|].
  cbn [attrs_loop]. cnext tk s1 R. dcn R.
  tcase tk pit_Ident E.
  - tnz E Hnz. destruct (negb (existsb (bstr_eqb (t_val tk)) allowed)); [cerr|].
    cexpect t2 s2 H2. cexpect t3 s3 H3.
    destruct (unq (t_val t3)).
    + cuse IH.
    + cerr.
  - destruct (tis tk pit_RightDelim || tis tk pit_RightDelimEnd).
    + destruct (c_backup_after inlen NT eofchk _ _ _ Hi R) as (A & B & C). cfin.
    + cerr.
Qed.

Lemma parse_autoescape_ok attrs s b :
  cinv s -> ckap s = b -> cpost b (fun _ s' => s' = s) (parse_autoescape inlen attrs s).
Proof.
  intros Hi Hb. unfold parse_autoescape. destruct (assoc_s _ _); [cfin|cerr].
Qed.

Lemma bool_attr_ok attrs key d s b :
  cinv s -> ckap s = b -> cpost b (fun _ s' => s' = s) (bool_attr inlen attrs key d s).
Proof.
  intros Hi Hb. unfold bool_attr. destruct (attr key attrs); [|cfin].
  destruct (bstr_eqb _ _); [cfin|]. destruct (bstr_eqb _ _); [cfin|cerr].
Qed.

(* loops that end right after a next: continuation style.  The continuation receives the state
   [sp] before that last next (kap conserved up to there) and the relation of the next. *)
Lemma next_non_comment_step {B} b (Q : B -> cst -> Prop) : forall f s k,
  cinv s -> ckap s = b -> (cmu s < f)%nat ->
  (forall sp tk s', cinv sp -> ckap sp = b -> (cmu sp <= cmu s)%nat -> cnrel sp tk s' -> cinv s' -> cpost b Q (k tk s')) ->
  cpost b Q (cbind (next_non_comment f s) k).
Proof.
  induction f as [|f IH]; intros s k Hi Hb Hf K; [lia|].
  cbn [next_non_comment]. rewrite cbind_assoc. cnext tk s1 R. dcn R.
  tcase tk pit_Comment E.
  - tnz E Hnz. apply IH; auto; unfold kap in *; try lia.
    intros sp tk' s' A1 B1 C1 D1 E1. apply (K sp); auto; lia.
  - cbn [cbind]. apply (K s); auto.
Qed.

Lemma skip_comments_step {B} b (Q : B -> cst -> Prop) : forall f s0 token s1 k,
  cinv s0 -> ckap s0 = b -> cnrel s0 token s1 -> cinv s1 -> (cmu s0 < f)%nat ->
  (forall sp tk s', cinv sp -> ckap sp = b -> (cmu sp <= cmu s0)%nat -> cnrel sp tk s' -> cinv s' -> cpost b Q (k tk s')) ->
  cpost b Q (cbind (skip_comments f token s1) k).
Proof.
  induction f as [|f IH]; intros s0 token s1 k Hi0 Hb R Hi1 Hf K; [lia|].
  cbn [skip_comments]. dcn R.
  tcase token pit_Comment E.
  - tnz E Hnz. rewrite cbind_assoc. cnext t' s2 R'.
    apply (IH s1); auto; unfold kap in *; try lia.
    intros sp tk' s' A1 B1 C1 D1 E1. apply (K sp); auto; lia.
  - cbn [cbind]. apply (K s0); auto.
Qed.

Lemma text_run_step {B} b (Q : B -> cst -> Prop) : forall f text s k,
  cinv s -> ckap s = b -> (cmu s < f)%nat ->
  (forall txt sp nx s', cinv sp -> ckap sp = b -> (cmu sp <= cmu s)%nat -> cnrel sp nx s' -> cinv s' -> cpost b Q (k (txt, nx) s')) ->
  cpost b Q (cbind (text_run f text s) k).
Proof.
  induction f as [|f IH]; intros text s k Hi Hb Hf K; [lia|].
  cbn [text_run]. rewrite cbind_assoc. cnext nx s1 R. dcn R.
  tcase nx pit_Text E.
  - tnz E Hnz. apply IH; auto; unfold kap in *; try lia.
    intros txt sp nx' s' A1 B1 C1 D1 E1. apply (K txt sp); auto; lia.
  - cbn [cbind]. apply (K _ s); auto.
Qed.

Lemma soydoc_loop_ok : forall f pos params s b,
  cinv s -> ckap s = b -> (cmu s < f)%nat ->
  cpost b (fun _ s' => (cmu s' <= cmu s)%nat) (soydoc_loop inlen f pos params s).
Proof.
  induction f as [|f IH]; intros pos params s b Hi Hb Hf; [lia|].
  cbn [soydoc_loop]. cnext nx s1 R. dcn R.
  tcase nx pit_Text E.
  { tnz E Hnz. cuse IH. }
  tcase2 (tis nx pit_SoyDocOptionalParam || tis nx pit_SoyDocParam) Hnz.
  { cexpect t2 s2 H2.
    cuse IH. }
  tcase nx pit_SoyDocEnd E3.
  - tnz E3 Hnz. cfin.
  - cerr.
Qed.

Lemma alias_loop_ok : forall f name last s b,
  cinv s -> ckap s = b -> (cmu s < f)%nat ->
  cpost b (fun _ s' => (cmu s' <= cmu s)%nat) (alias_loop inlen f name last s).
Proof.
  induction f as [|f IH]; intros name last s b Hi Hb Hf; [lia|].
  cbn [alias_loop]. cnext nx s1 R. dcn R.
  tcase nx pit_DotIdent E.
  { tnz E Hnz. destruct (tail1_ok (t_val nx) s1) as (seg & Es'); [apply twf_len1p; auto|]. rewrite Es'. cbn [cbind].
    cuse IH. }
  tcase nx pit_RightDelim E2.
  - tnz E2 Hnz. cbn [cpost]. unfold ParserBase.cinv in *. cbn [c_p c_scans add_alias]. unfold kap in *.
    split; [auto|]. split; lia.
  - cerr.
Qed.

Lemma parse_alias_ok f s b :
  cinv s -> ckap s = b -> (cmu s < f)%nat ->
  cpost b (fun _ s' => (cmu s' <= cmu s)%nat) (parse_alias inlen f s).
Proof.
  intros Hi Hb Hf. unfold parse_alias. cexpect id s1 H1.
  cuse alias_loop_ok.
Qed.

(* the .ident loops of parseNamespace and parseCall: end with a backup *)
Lemma dotted_name_ok : forall f name s b,
  cinv s -> ckap s = b -> (cmu s < f)%nat ->
  cpost b (fun _ s' => (cmu s' <= cmu s)%nat) (dotted_name f name s).
Proof.
  induction f as [|f IH]; intros name s b Hi Hb Hf; [lia|].
  cbn [dotted_name]. cnext part s1 R. dcn R.
  tcase part pit_DotIdent E.
  - tnz E Hnz. cuse IH.
  - destruct (c_backup_after inlen NT eofchk _ _ _ Hi R) as (A & B & C). cfin.
Qed.

Lemma call_name_loop_ok : forall f name s b,
  cinv s -> ckap s = b -> (cmu s < f)%nat ->
  cpost b (fun _ s' => (cmu s' <= cmu s)%nat) (call_name_loop f name s).
Proof.
  induction f as [|f IH]; intros name s b Hi Hb Hf; [lia|].
  cbn [call_name_loop]. cnext tk s1 R. dcn R.
  tcase tk pit_DotIdent E.
  - tnz E Hnz. cuse IH.
  - destruct (c_backup_after inlen NT eofchk _ _ _ Hi R) as (A & B & C). cfin.
Qed.

Lemma call_name_ok lf s b :
  cinv s -> ckap s = b -> (cmu s < lf)%nat ->
  cpost b (fun _ s' => (cmu s' <= cmu s)%nat) (call_name lf s).
Proof.
  intros Hi Hb Hf. unfold call_name. cnext tk s1 R. dcn R.
  tcase tk pit_DotIdent E.
  { tnz E Hnz. cfin. }
  tcase tk pit_Ident E2.
  - tnz E2 Hnz. cnext tk2 s2 R2. dcn R2.
    tcase tk2 pit_DotIdent E3.
    + tnz E3 Hnz3. cuse call_name_loop_ok.
    + assert (Hne : t_typ tk <> pit_EOF) by (rewrite E2; nzc).
      destruct (c_backup2_rel inlen NT eofchk s1 tk2 s2 tk Hi0 Rpk1 Rcur Hnz Hne Rtw R2) as (A & B & C).
      cfin.
  - destruct (c_backup_after inlen NT eofchk _ _ _ Hi R) as (A & B & C). cfin.
Qed.

Lemma parse_namespace_ok f token s b :
  cinv s -> ckap s = b -> (cmu s < f)%nat ->
  cpost b (fun _ s' => (cmu s' <= cmu s)%nat) (parse_namespace inlen unq f token s).
Proof.
  intros Hi Hb Hf. unfold parse_namespace. destruct (c_ns s); [|cerr].
  cexpect id s1 H1.
  eapply cpost_bind; [apply dotted_name_ok; auto; lia|]. intros name s2 Hi2 Hb2 H2. cbn beta in H2.
  eapply cpost_bind; [apply attrs_loop_ok; auto; lia|]. intros attrs s3 Hi3 Hb3 H3. cbn beta in H3.
  eapply cpost_bind; [apply parse_autoescape_ok; auto|]. intros ae s4 Hi4 Hb4 H4. cbn beta in H4. subst s4.
  cexpect t5 s5 H5.
  cbn [cpost]. unfold ParserBase.cinv in *. cbn [c_p c_scans set_ns]. unfold kap in *.
  split; [auto|]. split; lia.
Qed.

End Leaf.
