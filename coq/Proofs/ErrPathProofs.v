(* C19, render half: the node of the entry template that was executing.

   Part 1 (spine): one unfolding of the walker that ends in a fault either ends the
   same way when the sub-walks in the entry template are masked ([Spec.ErrPos.mask]) --
   the node's own code, or a template it calls, failed -- or a sub-walk in the entry
   template ended in that very fault and state.  (Instance of Proofs/WalkRel.v.)
   Part 2 (own failures): where the position register stands when a node fails in
   its own code: [reported_at].
   Part 3: the chain [failing_path] exists for every failing walk and ends in a
   node that fails in its own code. *)
From Soy Require Import Model.Bytes Model.Num Model.Values Model.Outcome Model.Ast
  Model.Escape Model.Directives Model.Print Generated.Tables Model.Interp Spec.ErrPos
  Proofs.InterpLogic Proofs.WalkRel Proofs.ErrPosProofs.
Require Import Lia.
Open Scope N_scope.

Lemma mask_depth_pos w c st : depth_ st <> 0%nat -> mask w c st = w c st.
Proof. intros H. unfold mask. destruct (Nat.eqb_spec (depth_ st) 0); [contradiction | reflexivity]. Qed.

Lemma mask_depth0 w c st :
  depth_ st = 0%nat ->
  mask w c st = match classify (fst (w c st)) with
                | inl v => (Ok v, snd (w c st))
                | inr _ => (Diverge, snd (w c st))
                end.
Proof. intros H. unfold mask. rewrite H. cbn. destruct (w c st) as [[] s]; reflexivity. Qed.

Lemma mask_never_err w c st e fin : depth_ st = 0%nat -> mask w c st = (Err e, fin) -> False.
Proof. intros H Hm. rewrite (mask_depth0 _ _ _ H) in Hm. destruct (classify _); discriminate. Qed.

Lemma mask_ok w c st v fin : mask w c st = (Ok v, fin) -> w c st = (Ok v, fin).
Proof.
  unfold mask. destruct (Nat.eqb (depth_ st) 0); [|auto].
  destruct (w c st) as [[] s]; intros H; inversion H; reflexivity.
Qed.

Lemma mask_state w c st : snd (mask w c st) = snd (w c st).
Proof. unfold mask. destruct (Nat.eqb (depth_ st) 0); [|reflexivity]. destruct (w c st) as [[] s]; reflexivity. Qed.

(* the callee runs at a depth above 0, where the mask does nothing *)
Lemma call_enter_mask w callee cd st : call_enter (mask w) callee cd st = call_enter w callee cd st.
Proof. rewrite !call_enter_eq. cbn zeta. rewrite (mask_depth_pos w); [reflexivity|]. cbn. discriminate. Qed.

(* Part 1: the spine *)
Section Spine.
Variable cf : cfg.
Variable fuel : nat.
Variable S : N -> Prop.

Definition child_fail {A} (r : outcome A) (fin : mstate) : Prop :=
  exists c s1 flt, okn S c /\ depth_ s1 = 0%nat /\ walk cf fuel c s1 = (of_fault flt, fin) /\ r = of_fault flt.

Definition sim (A : Type) (m m' : M A) : Prop :=
  forall st r fin, depth_ st = 0%nat -> m st = (r, fin) ->
    (m' st = (r, fin) /\ depth_ fin = 0%nat) \/ child_fail r fin.

Lemma child_fail_ok {A} (x : A) fin : child_fail (Ok x) fin -> False.
Proof. intros (c & s1 & flt & _ & _ & _ & H). symmetry in H. exact (of_fault_not_ok _ _ H). Qed.

Lemma child_fail_cast {A B} flt fin : child_fail (@of_fault A flt) fin -> child_fail (@of_fault B flt) fin.
Proof.
  intros (c & s1 & flt' & H1 & H2 & H3 & H4). exists c, s1, flt'. repeat split; try assumption.
  assert (flt = flt') as ->; [|reflexivity].
  pose proof (f_equal classify H4) as Hc. rewrite !classify_of_fault in Hc. inversion Hc. reflexivity.
Qed.

Lemma sim_logic : rel_logic sim (okn S).
Proof.
  constructor.
  - intros A m Hn st r fin Hd H. left. split; [exact H|]. destruct (Hn _ _ _ H) as [H1 _]. congruence.
  - intros A B m m' f f' Hm Hf st r fin Hd Hb.
    destruct (mbind_inv _ _ _ _ _ Hb) as [(x & st1 & H1 & H2) | (e & H1 & ->)].
    + destruct (Hm _ _ _ Hd H1) as [[H1' Hd1] | Hcf]; [|exfalso; exact (child_fail_ok _ _ Hcf)].
      destruct (Hf x _ _ _ Hd1 H2) as [[H2' Hd2] | Hcf]; [|right; exact Hcf].
      left. split; [|exact Hd2]. rewrite (mbind_ok _ _ _ _ _ H1'). exact H2'.
    + destruct (Hm _ _ _ Hd H1) as [[H1' Hd1] | Hcf].
      * left. split; [|exact Hd1]. apply (mbind_fault _ _ _ _ _ H1').
      * right. eapply child_fail_cast. exact Hcf.
  - intros B f f' Hf st r fin Hd H. change (mbind get f st) with (f st st) in H.
    change (mbind get f' st) with (f' st st). eapply Hf; eauto.
  - intros n _ st r fin Hd H. left. split; [exact H|]. inversion H; subst. exact Hd.
  - intros w w' e Hw st r fin Hd H. rewrite eval_eq in H.
    destruct (w e st) as [r1 st2] eqn:Hrun. cbn [fst snd] in H.
    destruct (Hw _ _ _ Hd Hrun) as [[Hrun' Hd2] | Hcf].
    + left. rewrite eval_eq, Hrun'. cbn [fst snd].
      destruct (classify r1); inversion H; subst; split; try reflexivity; exact Hd2.
    + destruct (classify r1) as [v|flt] eqn:Hc.
      * apply classify_ok in Hc. subst. exfalso. exact (child_fail_ok _ _ Hcf).
      * apply classify_fault in Hc. subst. inversion H; subst. right. exact Hcf.
Qed.

Lemma sim_walk c : okn S c -> sim value (walk cf fuel c) (mask (walk cf fuel) c).
Proof.
  intros Hq st r fin Hd H.
  destruct (classify r) as [v|flt] eqn:Hc.
  - apply classify_ok in Hc. subst. left. rewrite (mask_depth0 _ _ _ Hd), H. cbn. split; [reflexivity|].
    destruct (walk_frame _ _ _ _ _ _ H) as [H1 _]. congruence.
  - apply classify_fault in Hc. subst. right. exists c, st, flt. repeat split; assumption.
Qed.

Lemma sim_call callee cd : sim value (call_enter (walk cf fuel) callee cd) (call_enter (mask (walk cf fuel)) callee cd).
Proof.
  intros st r fin Hd H. left. rewrite call_enter_mask. split; [exact H|].
  destruct (call_enter_frame _ _ _ _ _ _ _ H) as [H1 _]. congruence.
Qed.

Theorem spine n st r fin :
  okn S n -> depth_ st = 0%nat -> walk cf (Datatypes.S fuel) n st = (r, fin) ->
  walk_body cf (mask (walk cf fuel)) n st = (r, fin) \/ child_fail r fin.
Proof.
  intros Hq Hd H. rewrite walk_S in H.
  destruct (rel_walk_body cf sim (okn S) sim_logic (okn_children S) (okn_synth S)
              (walk cf fuel) (mask (walk cf fuel)) sim_walk sim_call n Hq st r fin Hd H) as [[H1 _] | H1]; auto.
Qed.
End Spine.

(* Part 2: where the register stands when a node fails in its own code *)
Section Own.
Variable cf : cfg.
Variable fuel : nat.
Let wm := mask (walk cf fuel).

(* tight: at depth 0 the computation keeps the register on normal return and when it raises an error *)
Definition E0 {A} (m : M A) : Prop :=
  forall st r fin, depth_ st = 0%nat -> m st = (r, fin) ->
    depth_ fin = 0%nat /\ (forall x, r = Ok x -> cur fin = cur st) /\ (forall e, r = Err e -> cur fin = cur st).
(* an error either leaves the register where it was or is one of the allowed ones *)
Definition EC (a : bstr -> Prop) {A} (m : M A) : Prop :=
  forall st r fin, depth_ st = 0%nat -> m st = (r, fin) ->
    depth_ fin = 0%nat /\ (forall e, r = Err e -> cur fin = cur st \/ a e).
(* loose: only allowed errors *)
Definition EL (a : bstr -> Prop) {A} (m : M A) : Prop :=
  forall st r fin, depth_ st = 0%nat -> m st = (r, fin) ->
    depth_ fin = 0%nat /\ (forall e, r = Err e -> a e).

Lemma of_fault_err_cast {A B} flt e : @of_fault A flt = Err e -> @of_fault B flt = Err e.
Proof. destruct flt; cbn; intros H; inversion H; reflexivity. Qed.

Lemma E0_neutral {A} (m : M A) : neutral m -> E0 m.
Proof. intros Hn st r fin Hd H. destruct (Hn _ _ _ H) as [H1 H2]. repeat split; intros; congruence. Qed.
Lemma E0_bind {A B} (m : M A) (f : A -> M B) : E0 m -> (forall x, E0 (f x)) -> E0 (mbind m f).
Proof.
  intros Hm Hf st r fin Hd Hb.
  destruct (mbind_inv _ _ _ _ _ Hb) as [(x & st1 & H1 & H2) | (e & H1 & ->)].
  - destruct (Hm _ _ _ Hd H1) as (Hd1 & Hok & _). destruct (Hf x _ _ _ Hd1 H2) as (Hd2 & Hok2 & Herr2).
    rewrite <- (Hok x eq_refl). repeat split; auto.
  - destruct (Hm _ _ _ Hd H1) as (Hd1 & Hok & Herr). repeat split; auto.
    + intros x Hx. destruct (of_fault_not_ok _ _ Hx).
    + intros e0 He. apply (Herr e0). eapply of_fault_err_cast; eauto.
Qed.
Lemma E0_get {B} (f : mstate -> M B) : (forall s, E0 (f s)) -> E0 (mbind get f).
Proof. intros Hf st r fin Hd H. change (mbind get f st) with (f st st) in H. eapply Hf; eauto. Qed.

Lemma EC_of_E0 a {A} (m : M A) : E0 m -> EC a m.
Proof. intros H st r fin Hd Hr. destruct (H _ _ _ Hd Hr) as (H1 & _ & H3). split; [exact H1 | intros e He; left; exact (H3 e He)]. Qed.
Lemma EC_of_EL a {A} (m : M A) : EL a m -> EC a m.
Proof. intros H st r fin Hd Hr. destruct (H _ _ _ Hd Hr) as (H1 & H3). split; [exact H1 | intros e He; right; exact (H3 e He)]. Qed.
Lemma EL_weaken (a a' : bstr -> Prop) {A} (m : M A) : (forall e, a e -> a' e) -> EL a m -> EL a' m.
Proof. intros Ha H st r fin Hd Hr. destruct (H _ _ _ Hd Hr) as (H1 & H3). split; [exact H1 | intros e He; exact (Ha e (H3 e He))]. Qed.
Lemma EC_weaken (a a' : bstr -> Prop) {A} (m : M A) : (forall e, a e -> a' e) -> EC a m -> EC a' m.
Proof.
  intros Ha H st r fin Hd Hr. destruct (H _ _ _ Hd Hr) as (H1 & H3). split; [exact H1|].
  intros e He. destruct (H3 e He); auto.
Qed.
Lemma EC_bind_E0 a {A B} (m : M A) (f : A -> M B) : E0 m -> (forall x, EC a (f x)) -> EC a (mbind m f).
Proof.
  intros Hm Hf st r fin Hd Hb.
  destruct (mbind_inv _ _ _ _ _ Hb) as [(x & st1 & H1 & H2) | (e & H1 & ->)].
  - destruct (Hm _ _ _ Hd H1) as (Hd1 & Hok & _). destruct (Hf x _ _ _ Hd1 H2) as (Hd2 & Herr2).
    rewrite <- (Hok x eq_refl). split; auto.
  - destruct (Hm _ _ _ Hd H1) as (Hd1 & _ & Herr). split; auto.
    intros e0 He. left. apply (Herr e0). eapply of_fault_err_cast; eauto.
Qed.
Lemma EC_bind_EL a {A B} (m : M A) (f : A -> M B) : EC a m -> (forall x, EL a (f x)) -> EC a (mbind m f).
Proof.
  intros Hm Hf st r fin Hd Hb.
  destruct (mbind_inv _ _ _ _ _ Hb) as [(x & st1 & H1 & H2) | (e & H1 & ->)].
  - destruct (Hm _ _ _ Hd H1) as (Hd1 & _). destruct (Hf x _ _ _ Hd1 H2) as (Hd2 & Herr2). split; auto.
  - destruct (Hm _ _ _ Hd H1) as (Hd1 & Herr). split; auto.
    intros e0 He. apply (Herr e0). eapply of_fault_err_cast; eauto.
Qed.
Lemma EL_bind a {A B} (m : M A) (f : A -> M B) : EL a m -> (forall x, EL a (f x)) -> EL a (mbind m f).
Proof.
  intros Hm Hf st r fin Hd Hb.
  destruct (mbind_inv _ _ _ _ _ Hb) as [(x & st1 & H1 & H2) | (e & H1 & ->)].
  - destruct (Hm _ _ _ Hd H1) as (Hd1 & _). destruct (Hf x _ _ _ Hd1 H2) as (Hd2 & Herr2). split; auto.
  - destruct (Hm _ _ _ Hd H1) as (Hd1 & Herr). split; auto.
    intros e0 He. apply (Herr e0). eapply of_fault_err_cast; eauto.
Qed.
Lemma EL_ret a {A} (x : A) : EL a (ret x).
Proof. intros st r fin Hd H. inversion H; subst. split; [exact Hd | intros e He; discriminate]. Qed.
Lemma EL_fail (a : bstr -> Prop) {A} e : a e -> EL a (@fail A e).
Proof. intros Ha st r fin Hd H. inversion H; subst. split; [exact Hd | intros e' He; inversion He; subst; exact Ha]. Qed.
Lemma EL_modify a f : (forall st, depth_ (f st) = depth_ st) -> EL a (modify f).
Proof. intros Hf st r fin Hd H. inversion H; subst. split; [rewrite Hf; exact Hd | intros e He; discriminate]. Qed.

(* the masked walker in the entry template: never an error, same depth afterwards *)
Lemma wm_depth c st r fin : wm c st = (r, fin) -> depth_ fin = depth_ st.
Proof.
  intros H. pose proof (mask_state (walk cf fuel) c st) as Hs. fold wm in Hs. rewrite H in Hs. cbn [snd] in Hs.
  destruct (walk cf fuel c st) as [r1 s1] eqn:Hrun. cbn [snd] in Hs. subst.
  destruct (walk_frame _ _ _ _ _ _ Hrun) as [H1 _]. exact H1.
Qed.
Lemma EL_wm a c : EL a (wm c).
Proof.
  intros st r fin Hd H. split; [rewrite (wm_depth _ _ _ _ H); exact Hd|].
  intros e ->. exfalso. exact (mask_never_err _ _ _ _ _ Hd H).
Qed.

Lemma E0_eval e : E0 (eval wm e).
Proof.
  intros st r fin Hd H. rewrite eval_eq in H. destruct (wm e st) as [r1 st2] eqn:Hrun. cbn [fst snd] in H.
  pose proof (wm_depth _ _ _ _ Hrun) as Hd2.
  destruct (classify r1) as [v|flt] eqn:Hc; inversion H; subst.
  - split; [cbn; congruence|]. split; [|intros e0 He; discriminate].
    intros x _. rewrite cur_set_cur. rewrite Hd2, Hd. reflexivity.
  - split; [congruence|]. split.
    + intros x Hx. destruct (of_fault_not_ok _ _ Hx).
    + intros e0 He. apply classify_fault in Hc. subst. exfalso. rewrite He in Hrun. exact (mask_never_err _ _ _ _ _ Hd Hrun).
Qed.

(* [neu]: a computation without recursive walks leaves depth and position alone ([neutral]); [e0]: such a
   computation or an [eval] satisfies [E0]; [e0_bind] / [ec_bind] (below): the bind rules of [E0] / [EC] *)
Ltac neu := solve [ auto with neutral | apply neutral_modify; intros; split; reflexivity | apply neutral_bind; [ neu | intro; neu ] ].
Ltac e0 := first [ apply E0_neutral; neu | apply E0_eval ].
Ltac e0_bind := apply E0_bind; [ | intro ].

Lemma E0_evaldef e : E0 (evaldef wm e).
Proof. unfold evaldef. e0_bind; [e0|]. destruct x; e0. Qed.
Lemma E0_eval_list es : E0 (eval_list wm es).
Proof. induction es as [|e l IH]; cbn [eval_list]; [e0|]. e0_bind; [e0|]. e0_bind; [exact IH | e0]. Qed.
Lemma E0_maplit_items l : E0 (maplit_items wm l).
Proof. induction l as [|[k e] r IH]; cbn [maplit_items]; [e0|]. e0_bind; [e0|]. e0_bind; [exact IH | e0]. Qed.
Lemma E0_call_func name args : E0 (call_func wm name args).
Proof.
  unfold call_func. destruct (func_arities name); [|e0]. destruct (negb _); [e0|].
  e0_bind; [apply E0_eval_list|]. e0_bind; [e0|]. destruct x0; e0.
Qed.
Lemma E0_dataref_access acc : forall ref, E0 (dataref_access wm acc ref).
Proof.
  induction acc as [|a rest IH]; intros ref; cbn [dataref_access]; [e0|].
  e0_bind.
  - destruct a; try e0. e0_bind; [e0|]. destruct x; try e0; (e0_bind; [e0 | e0]).
  - destruct x as [oi k]. destruct ref; try e0.
    + destruct (is_nullsafe a); e0.
    + destruct (is_nullsafe a); e0.
    + destruct oi; [apply IH | e0].
    + destruct oi; [e0 | apply IH].
Qed.
Lemma E0_print_dirs l : forall v, E0 (print_dirs cf wm l v).
Proof.
  induction l as [|d r IH]; intros v; cbn [print_dirs]; [e0|].
  destruct d; try e0. destruct (lookup_directive name) as [[arglens ?]|]; [|e0]. destruct (negb _); [e0|].
  e0_bind; [apply E0_eval_list|]. e0_bind; [e0|]. e0_bind; [e0|]. e0_bind; [apply IH | e0].
Qed.
Lemma E0_case_hit sv vs : E0 (case_hit wm sv vs).
Proof. induction vs as [|x r IH]; cbn [case_hit]; [e0|]. e0_bind; [e0|]. destruct (equals sv x0); [e0 | exact IH]. Qed.
Lemma E0_call_data alldata dat : E0 (call_data wm alldata dat).
Proof.
  unfold call_data. apply E0_get. intros c. destruct alldata.
  - destruct (sc_alldata (ctx c)); e0.
  - destruct dat; [|e0]. e0_bind; [e0|]. destruct x; e0.
Qed.
Lemma E0_call_enter callee cd : E0 (call_enter wm callee cd).
Proof.
  intros st r fin Hd H. unfold wm in H. rewrite call_enter_mask in H.
  destruct (call_enter_frame _ _ _ _ _ _ _ H) as [H1 H2]. repeat split; intros; congruence.
Qed.

Lemma EL_walk_list ns : EL (fun _ => False) (walk_list wm ns).
Proof. induction ns as [|x l IH]; cbn [walk_list]; [apply EL_ret|]. apply EL_bind; [apply EL_wm | intro; exact IH]. Qed.

Lemma EL_render_block body : EL (fun e => e = e_impossible) (render_block wm body).
Proof.
  unfold render_block. apply EL_bind; [apply EL_modify; reflexivity|]. intros _.
  apply EL_bind; [apply EL_wm|]. intros _.
  intros st r fin Hd H. change (mbind get ?f st) with (f st st) in H. cbv beta in H.
  destruct (bufs st) as [|buf rest].
  - inversion H; subst. split; [exact Hd | intros e He; inversion He; reflexivity].
  - revert st r fin Hd H. change (EL (fun e => e = e_impossible) (_ <-- modify (fun st => set_bufs st rest) ;;; ret (concat_b (rev buf)))).
    apply EL_bind; [apply EL_modify; reflexivity | intros _; apply EL_ret].
Qed.

Lemma EC_if_conds cs : EC (fun _ => False) (if_conds wm cs).
Proof.
  induction cs as [|c0 r IH]; cbn [if_conds]; [apply EC_of_E0; e0|].
  destruct c0; try (apply EC_of_E0; e0).
  destruct cond as [c|].
  - apply EC_bind_E0; [e0|]. intros v. destruct (truthy v); [|exact IH].
    apply EC_of_EL. apply EL_bind; [apply EL_wm | intros _; apply EL_ret].
  - apply EC_of_EL. apply EL_bind; [apply EL_wm | intros _; apply EL_ret].
Qed.

Lemma EL_m_set k v : EL (fun e => e = e_index) (m_set k v).
Proof.
  intros st r fin Hd H. destruct (neutral_m_set k v _ _ _ H) as [H1 _]. split; [congruence|].
  intros e ->. rewrite m_set_eq in H. destruct (ctx st); inversion H; reflexivity.
Qed.

Lemma EL_for_items var body items : forall i, EL (fun e => e = e_index) (for_items wm var body i items).
Proof.
  induction items as [|x r IH]; intros i; cbn [for_items]; [apply EL_ret|].
  apply EL_bind; [apply EL_m_set|]. intros _. apply EL_bind; [apply EL_m_set|]. intros _.
  apply EL_bind; [apply EL_wm | intro; apply IH].
Qed.

Lemma EC_switch_cases sv cs : EC (fun _ => False) (switch_cases wm sv cs).
Proof.
  induction cs as [|c r IH]; cbn [switch_cases]; [apply EC_of_E0; e0|].
  destruct c; try (apply EC_of_E0; e0).
  apply EC_bind_E0; [apply E0_case_hit|]. intros hit.
  destruct (hit || _); [|exact IH]. apply EC_of_EL. apply EL_bind; [apply EL_wm | intros _; apply EL_ret].
Qed.

Lemma EL_eval a e : EL a (eval wm e).
Proof.
  intros st r fin Hd H. destruct (E0_eval e _ _ _ Hd H) as (H1 & _ & _). split; [exact H1|].
  intros e0 ->. exfalso. rewrite eval_eq in H. destruct (wm e st) as [r1 st2] eqn:Hrun. cbn [fst snd] in H.
  destruct (classify r1) as [v|flt] eqn:Hc; inversion H; subst.
  apply classify_fault in Hc. subst. match goal with H : of_fault _ = Err _ |- _ => rewrite H in Hrun end.
  exact (mask_never_err _ _ _ _ _ Hd Hrun).
Qed.

Definition params_err (e : bstr) : Prop := e = e_impossible \/ e = e_unknown.

Lemma EL_call_params ps : forall cd, EL params_err (call_params wm ps cd).
Proof.
  induction ps as [|p r IH]; intros cd; cbn [call_params]; [apply EL_ret|].
  destruct p; try (apply EL_fail; right; reflexivity).
  - apply EL_bind; [apply EL_eval | intro; apply IH].
  - apply EL_bind; [eapply EL_weaken; [|apply EL_render_block]; intros e ->; left; reflexivity | intro; apply IH].
Qed.

Lemma own_expr_like n st e fin :
  depth_ st = 0%nat -> E0 (walk_node cf wm n) -> walk_body cf wm n st = (Err e, fin) -> cur fin = pos_of n.
Proof.
  intros Hd HE H. rewrite walk_body_eq in H.
  destruct (HE _ _ _ (Hd : depth_ (set_cur st (pos_of n)) = 0%nat) H) as (_ & _ & Herr).
  rewrite (Herr e eq_refl). rewrite cur_set_cur, Hd. reflexivity.
Qed.

Lemma own_ec n a st e fin :
  depth_ st = 0%nat -> EC a (walk_node cf wm n) -> walk_body cf wm n st = (Err e, fin) -> cur fin = pos_of n \/ a e.
Proof.
  intros Hd HE H. rewrite walk_body_eq in H.
  destruct (HE _ _ _ (Hd : depth_ (set_cur st (pos_of n)) = 0%nat) H) as (_ & Herr).
  destruct (Herr e eq_refl) as [Hc|Ha]; [left|right; exact Ha].
  rewrite Hc. rewrite cur_set_cur, Hd. reflexivity.
Qed.

Lemma masked_body_position n st r fin :
  depth_ st = 0%nat -> walk_body cf wm n st = (r, fin) -> In (cur fin) (poss n).
Proof.
  intros Hd H. rewrite walk_body_eq in H.
  set (S := fun p => In p (poss n)).
  assert (Hq : okn S n) by (intros p Hp; exact Hp).
  assert (Hw : forall c, okn S c -> PhiK S value (wm c) (wm c)).
  { intros c Hc s0 r0 s1 H0. pose proof (mask_state (walk cf fuel) c s0) as Hs. fold wm in Hs. rewrite H0 in Hs. cbn [snd] in Hs.
    destruct (walk cf fuel c s0) as [r1 s2] eqn:Hrun. cbn [snd] in Hs. subst s2.
    exact (contain_walk cf S fuel c Hc _ _ _ Hrun). }
  assert (Hcall : forall callee cd, PhiK S value (call_enter wm callee cd) (call_enter wm callee cd)).
  { intros callee cd s0 r0 s1 H0. unfold wm in H0. rewrite call_enter_mask in H0.
    destruct (call_enter_frame _ _ _ _ _ _ _ H0) as [H1 H2]. split; [exact H1 | rewrite H2; auto]. }
  destruct (rel_walk_node cf (PhiK S) (okn S) (K_logic S) (okn_children S) (okn_synth S) wm wm Hw Hcall n Hq _ _ _ H) as [_ Hn].
  apply Hn. unfold S. rewrite cur_set_cur, Hd. cbn. apply poss_self.
Qed.

Lemma E0_print_rest v dirs :
  E0 (match v with
      | VUndef => fail e_undefined
      | _ => ds <-- print_dirs cf wm dirs v ;;; s <-- lift (value_string v) ;;; st <-- get ;;;
             ws <-- lift (print_writes (mode st) ds s) ;;; _ <-- write_all ws ;;; ret VUndef
      end).
Proof.
  assert (Hrest : E0 (ds <-- print_dirs cf wm dirs v ;;; s <-- lift (value_string v) ;;; st <-- get ;;;
                      ws <-- lift (print_writes (mode st) ds s) ;;; _ <-- write_all ws ;;; ret VUndef)).
  { e0_bind; [apply E0_print_dirs|]. e0_bind; [e0|]. apply E0_get. intros s. e0_bind; [e0|]. e0_bind; [e0 | e0]. }
  destruct v; try exact Hrest. e0.
Qed.

Lemma own_print p arg dirs st e fin :
  depth_ st = 0%nat -> walk_body cf wm (NPrint p arg dirs) st = (Err e, fin) -> In (cur fin) (poss arg).
Proof.
  intros Hd H. rewrite walk_body_eq in H.
  cbn [walk_node] in H.
  destruct (mbind_inv _ _ _ _ _ H) as [(v & s1 & H1 & H2) | (flt & H1 & He)].
  - pose proof (wm_depth _ _ _ _ H1) as Hd1. cbn in Hd1.
    destruct (E0_print_rest v dirs s1 _ _ (eq_trans Hd1 Hd) H2) as (_ & _ & Herr). rewrite (Herr e eq_refl).
    apply mask_ok in H1. destruct fuel as [|f]; [rewrite walk_O in H1; inversion H1|].
    eapply walk_position_in_subtree; [|exact H1]. exact Hd.
  - exfalso. rewrite <- He in H1. exact (mask_never_err _ _ _ _ _ (Hd : depth_ (set_cur st p) = 0%nat) H1).
Qed.

Lemma own_call p name alldata dat params st e fin :
  depth_ st = 0%nat -> walk_body cf wm (NCall p name alldata dat params) st = (Err e, fin) ->
  cur fin = p \/ params_err e.
Proof.
  intros Hd H. rewrite walk_body_eq in H.
  cbn [walk_node] in H.
  assert (Hd0 : depth_ (set_cur st p) = 0%nat) by exact Hd.
  assert (Hc0 : cur (set_cur st p) = p) by (rewrite cur_set_cur, Hd; reflexivity).
  destruct (find_template _ name) as [callee|].
  2: { inversion H; subst. left. exact Hc0. }
  destruct (mbind_inv _ _ _ _ _ H) as [(cd & s1 & H1 & H2) | (flt & H1 & He)].
  - destruct (E0_call_data alldata dat _ _ _ Hd0 H1) as (Hd1 & _ & _).
    destruct (mbind_inv _ _ _ _ _ H2) as [(cd' & s2 & H3 & H4) | (flt & H3 & He)].
    + destruct (EL_call_params params cd _ _ _ Hd1 H3) as (Hd2 & _).
      change ((_ <-- modify (fun st => set_cur st p) ;;; call_enter wm callee cd') s2)
        with (call_enter wm callee cd' (set_cur s2 p)) in H4.
      destruct (E0_call_enter callee cd' _ _ _ (Hd2 : depth_ (set_cur s2 p) = 0%nat) H4) as (_ & _ & Herr).
      left. rewrite (Herr e eq_refl). rewrite cur_set_cur, Hd2. reflexivity.
    + destruct (EL_call_params params cd _ _ _ Hd1 H3) as (_ & Herr). right. apply Herr.
      eapply of_fault_err_cast. symmetry. exact He.
  - destruct (E0_call_data alldata dat _ _ _ Hd0 H1) as (_ & _ & Herr). left.
    rewrite (Herr e (of_fault_err_cast _ _ (eq_sym He))). exact Hc0.
Qed.

(* the nodes whose own code keeps the register where [walk_body] put it, whatever fails *)
Definition keeps_register (n : node) : bool :=
  match n with
  | NList _ _ | NPrint _ _ _ | NLog _ _ | NIf _ _ | NFor _ _ _ _ _ | NSwitch _ _ _ | NCall _ _ _ _ _
  | NLetContent _ _ _ | NMsg _ _ _ _ _ | NTemplate _ _ _ _ _ => false
  | _ => true
  end.
Lemma E0_walk_node n : keeps_register n = true -> E0 (walk_node cf wm n).
Proof.
  intros Hk. destruct n; try discriminate Hk; cbn [walk_node]; try solve [e0].
  - (* NFunc *) destruct (_ || _); [e0 | apply E0_call_func].
  - (* NListLit *) e0_bind; [apply E0_eval_list | e0].
  - (* NMapLit *) e0_bind; [apply E0_maplit_items | e0].
  - (* NDataRef *) e0_bind; [|apply E0_dataref_access]. destruct (bstr_eqb key s_ij); [|e0]. destruct (c_ij cf); e0.
  - (* NNot *) e0_bind; [e0 | e0].
  - (* NNeg *) e0_bind; [apply E0_evaldef|]. destruct x; e0.
  - (* NBin *)
    destruct op.
    1-5: (e0_bind; [apply E0_evaldef|]; e0_bind; [apply E0_evaldef | e0]).
    1-2: (e0_bind; [e0|]; e0_bind; [e0 | e0]).
    1-4: (e0_bind; [apply E0_evaldef|]; e0_bind; [apply E0_evaldef | e0]).
    + e0_bind; [e0|]. destruct (truthy x); [e0|]. e0_bind; [e0 | e0].
    + e0_bind; [e0|]. destruct (truthy x); [|e0]. e0_bind; [e0 | e0].
    + e0_bind; [e0|]. destruct (is_nullish x); e0.
  - (* NTern *) e0_bind; [e0|]. destruct (truthy x); e0.
  - (* NCss *) e0_bind; [|e0_bind; [e0 | e0]]. destruct expr; [|e0]. e0_bind; [e0|]. e0_bind; [e0 | e0].
  - (* NLetValue *) e0_bind; [e0|]. e0_bind; [e0 | e0].
Qed.

Ltac ec_bind := apply EC_bind_E0; [ | intro ].

Theorem own_failure_position n st e fin :
  depth_ st = 0%nat -> walk_body cf wm n st = (Err e, fin) -> reported_at n e (cur fin).
Proof.
  intros Hd H.
  destruct n; try (left; refine (own_expr_like _ _ _ _ Hd _ H); apply E0_walk_node; reflexivity).
  - (* NList *)
    assert (HEC : EC (fun _ => False) (walk_node cf wm (NList p nodes))).
    { cbn [walk_node]. apply EC_of_EL. apply EL_bind; [apply EL_modify; reflexivity|]. intros _.
      apply EL_bind; [apply EL_walk_list|]. intros _. apply EL_bind; [apply EL_modify; reflexivity | intros _; apply EL_ret]. }
    destruct (own_ec _ _ _ _ _ Hd HEC H) as [Hc|[]]. left; exact Hc.
  - (* NPrint *) cbn [reported_at]. eapply own_print; eauto.
  - (* NLog *)
    assert (HEC : EC (fun e => e = e_impossible) (walk_node cf wm (NLog p n))).
    { cbn [walk_node]. apply EC_of_EL. apply EL_bind; [apply EL_render_block | intros _; apply EL_ret]. }
    destruct (own_ec _ _ _ _ _ Hd HEC H) as [Hc|He]; [left; exact Hc | right; left; exact He].
  - (* NIf *)
    assert (HEC : EC (fun _ => False) (walk_node cf wm (NIf p conds))) by (cbn [walk_node]; apply EC_if_conds).
    destruct (own_ec _ _ _ _ _ Hd HEC H) as [Hc|[]]. left; exact Hc.
  - (* NFor *)
    assert (HEC : EC (fun e => e = e_index) (walk_node cf wm (NFor p var n1 n2 ifempty))).
    { cbn [walk_node]. ec_bind; [e0|]. destruct x; try (apply EC_of_E0; e0).
      destruct l as [|y l'].
      + destruct ifempty; [|apply EC_of_E0; e0]. apply EC_of_EL. apply EL_bind; [apply EL_wm | intros _; apply EL_ret].
      + ec_bind; [e0|]. ec_bind; [e0|]. apply EC_of_EL.
        apply EL_bind; [apply EL_for_items|]. intros _. apply EL_bind; [apply EL_modify; reflexivity | intros _; apply EL_ret]. }
    destruct (own_ec _ _ _ _ _ Hd HEC H) as [Hc|He]; [left; exact Hc | right; left; exact He].
  - (* NSwitch *)
    assert (HEC : EC (fun _ => False) (walk_node cf wm (NSwitch p n cases))).
    { cbn [walk_node]. ec_bind; [e0 | apply EC_switch_cases]. }
    destruct (own_ec _ _ _ _ _ Hd HEC H) as [Hc|[]]. left; exact Hc.
  - (* NCall *) destruct (own_call _ _ _ _ _ _ _ _ Hd H) as [Hc|He]; [left; exact Hc | right; exact He].
  - (* NLetContent *)
    assert (HEC : EC (fun e => e = e_index \/ e = e_impossible) (walk_node cf wm (NLetContent p name n))).
    { cbn [walk_node]. apply EC_of_EL.
      apply EL_bind; [eapply EL_weaken; [|apply EL_render_block]; intros e0 ->; right; reflexivity|]. intros s.
      apply EL_bind; [eapply EL_weaken; [|apply EL_m_set]; intros e0 ->; left; reflexivity | intros _; apply EL_ret]. }
    destruct (own_ec _ _ _ _ _ Hd HEC H) as [Hc|He]; [left; exact Hc | right; exact He].
  - (* NMsg *) cbn [reported_at]. eapply masked_body_position; eauto.
  - (* NTemplate *)
    assert (HEC : EC (fun _ => False) (walk_node cf wm (NTemplate p name n autoescape private))).
    { cbn [walk_node]. apply EC_of_EL. apply EL_bind; [apply EL_modify; reflexivity|]. intros _.
      apply EL_bind; [apply EL_wm | intros _; apply EL_ret]. }
    destruct (own_ec _ _ _ _ _ Hd HEC H) as [Hc|[]]. left; exact Hc.
Qed.
End Own.

(* Part 3: the failing path *)
Lemma failing_path_nonempty cf e fin fuel n path : failing_path cf e fin fuel n path -> path <> [].
Proof. destruct 1; discriminate. Qed.

Lemma failing_path_head cf e fin fuel n path : failing_path cf e fin fuel n path -> exists tl, path = n :: tl.
Proof. destruct 1; eexists; reflexivity. Qed.

Lemma last_default {A} (l : list A) d d' : l <> [] -> last l d = last l d'.
Proof.
  induction l as [|x r IH]; [congruence|]. intros _. destruct r as [|y r']; [reflexivity|].
  change (last (x :: y :: r') d) with (last (y :: r') d). change (last (x :: y :: r') d') with (last (y :: r') d').
  apply IH. discriminate.
Qed.

Theorem failing_path_exists cf fuel : forall n e fin,
  walk_fails cf fuel n e fin ->
  exists path, failing_path cf e fin fuel n path /\ reported_at (last path n) e (cur fin).
Proof.
  induction fuel as [|f IH]; intros n e fin (st & Hd & H).
  - rewrite walk_O in H. inversion H.
  - set (S := fun p => In p (poss n)).
    assert (Hq : okn S n) by (intros p Hp; exact Hp).
    destruct (spine cf f S n st _ _ Hq Hd H) as [Hown | (c & s1 & flt & Hc & Hd1 & Hrun & Hflt)].
    + exists [n]. split.
      * apply fp_here. exists st. split; assumption.
      * cbn [last]. eapply own_failure_position; eauto.
    + assert (flt = FErr e) as ->.
      { pose proof (f_equal classify Hflt) as Hcl. rewrite classify_of_fault in Hcl. cbn in Hcl. inversion Hcl. reflexivity. }
      cbn [of_fault] in Hrun.
      destruct (IH c e fin (ex_intro _ s1 (conj Hd1 Hrun))) as (path & Hpath & Hrep).
      exists (n :: path). split.
      * eapply fp_down; [exists st; split; assumption | exact Hc | exact Hpath].
      * destruct (failing_path_head _ _ _ _ _ _ Hpath) as (tl & ->).
        change (last (n :: c :: tl) n) with (last (c :: tl) n).
        rewrite (last_default (c :: tl) n c); [exact Hrep | discriminate].
Qed.

(* every node of the path fails with that error in that state, and lies within the first *)
Lemma failing_path_within cf e fin fuel n path :
  failing_path cf e fin fuel n path -> within (last path n) n.
Proof.
  induction 1 as [f n Hown | f n c path Hf Hw Hp IH].
  - cbn. intros p Hp. exact Hp.
  - destruct (failing_path_head _ _ _ _ _ _ Hp) as (tl & ->).
    change (last (n :: c :: tl) n) with (last (c :: tl) n).
    rewrite (last_default (c :: tl) n c); [|discriminate].
    intros p Hpp. apply Hw. apply IH. exact Hpp.
Qed.

(* a failure inside a called template is reported at the call *)
Theorem position_frozen_in_callee cf fuel n st r st' :
  depth_ st <> 0%nat -> walk cf fuel n st = (r, st') -> cur st' = cur st /\ depth_ st' = depth_ st.
Proof. intros Hd H. destruct (walk_frame _ _ _ _ _ _ H) as [H1 H2]. split; [apply H2; exact Hd | exact H1]. Qed.

Lemma depth_kept_logic : rel_logic (PhiK (fun _ => True)) (okn (fun _ => True)).
Proof. apply K_logic. Qed.

Theorem callee_failure_at_call cf fuel p name alldata dat params callee st cd s2 e fin :
  depth_ st = 0%nat ->
  find_template (r_templates (c_reg cf)) name = Some callee ->
  (cd0 <-- call_data (walk cf fuel) alldata dat ;;; call_params (walk cf fuel) params cd0) (set_cur st p) = (Ok cd, s2) ->
  call_enter (walk cf fuel) callee cd (set_cur s2 p) = (Err e, fin) ->
  walk cf (Datatypes.S fuel) (NCall p name alldata dat params) st = (Err e, fin) /\ cur fin = p /\ depth_ fin = 0%nat.
Proof.
  intros Hd Hfind Hprep Hcallee.
  assert (Hall : forall c : node, okn (fun _ => True) c) by (intros c q _; exact Logic.I).
  assert (Hd2 : depth_ s2 = 0%nat).
  { assert (HK : K (fun _ => True) (cd0 <-- call_data (walk cf fuel) alldata dat ;;; call_params (walk cf fuel) params cd0)).
    { apply (rl_bind _ _ depth_kept_logic _ _ _ (call_data (walk cf fuel) alldata dat) _ (fun cd0 => call_params (walk cf fuel) params cd0)).
      - apply (rel_call_data _ _ depth_kept_logic (walk cf fuel) (walk cf fuel));
          [intros c _; exact (contain_walk cf _ fuel c (Hall c)) | apply Forall_forall; intros; apply Hall].
      - intros cd0. apply (rel_call_params _ _ depth_kept_logic (okn_children _) (walk cf fuel) (walk cf fuel));
          [intros c _; exact (contain_walk cf _ fuel c (Hall c)) | apply Forall_forall; intros; apply Hall]. }
    destruct (HK _ _ _ Hprep) as [H1 _]. rewrite H1. exact Hd. }
  destruct (call_enter_frame _ _ _ _ _ _ _ Hcallee) as [Hdf Hcf].
  split; [|split].
  - rewrite walk_S, walk_body_eq. cbn [walk_node pos_of]. rewrite Hfind.
    rewrite <- mbind_assoc. rewrite (mbind_ok _ _ _ _ _ Hprep).
    change ((_ <-- modify (fun st => set_cur st p) ;;; call_enter (walk cf fuel) callee cd) s2)
      with (call_enter (walk cf fuel) callee cd (set_cur s2 p)). exact Hcallee.
  - rewrite Hcf. rewrite cur_set_cur, Hd2. reflexivity.
  - rewrite Hdf. exact Hd2.
Qed.

Theorem render_error_is_active_command_lemma
    cf fuel name did dat cl bl fid t src file m :
  find_template (r_templates (c_reg cf)) name = Some t ->
  assoc_s name (r_sources (c_reg cf)) = Some src ->
  assoc_s name (r_files (c_reg cf)) = Some file ->
  positions_in_source src (t_node t) ->
  let res := render cf fuel name did dat cl bl fid in
  rr_outcome res = Err m ->
  exists fin path,
    failing_path cf m fin fuel (t_node t) path /\
    within (last path (t_node t)) (t_node t) /\
    reported_at (last path (t_node t)) m (cur fin) /\
    rr_file res = file /\ rr_line res = line_at src (cur fin) /\ 1 <= rr_line res <= lines src.
Proof.
  intros Hfind Hsrc Hfile Hpos res Hres.
  destruct (render_error_in_entry_template_lemma cf fuel name did dat cl bl fid t src file Hfind Hsrc Hfile Hpos)
    as (H1 & H2 & _).
  fold res in H1, H2. specialize (H2 m Hres).
  set (st0 := init_state (sc_enter (new_scope did dat)) (entry_mode (t_ns_autoescape t)) name cl bl fid) in *.
  destruct (walk cf fuel (t_node t) st0) as [r fin] eqn:Hrun. cbn [fst snd] in *. subst r.
  destruct (H1 m eq_refl) as (_ & Hf & n & Hn & Hcur & Hline & Hb).
  assert (Hwf : walk_fails cf fuel (t_node t) m fin) by (exists st0; split; [reflexivity | exact Hrun]).
  destruct (failing_path_exists cf fuel _ _ _ Hwf) as (path & Hpath & Hrep).
  exists fin, path. split; [exact Hpath|]. split; [eapply failing_path_within; eauto|].
  split; [exact Hrep|]. split; [exact Hf|]. rewrite Hcur. split; [exact Hline | exact Hb].
Qed.
