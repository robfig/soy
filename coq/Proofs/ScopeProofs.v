(* C02, part 3: the simulation of every command of the walker, the induction
   on the fuel, and the theorem [exec_impl_spec]: the scope-stack machine of
   soyhtml (Model/Interp.v) implements the lexical semantics (Spec/Cmd.v). *)
From Soy Require Import Model.Bytes Model.Num Model.Values Model.Outcome Model.Ast
  Model.Escape Model.Directives Model.Print Generated.Tables Model.Interp Spec.Cmd
  Proofs.InterpLogic Proofs.ValueProofs Proofs.ConvertProofs Proofs.ScopeRel Proofs.ScopeExprProofs.
Open Scope N_scope.

Lemma wf_item_cmd n : let_name n = None -> wf KItem n = wf KCmd n.
Proof. destruct n; intros H; try discriminate H; reflexivity. Qed.

(* a match that only singles out the undefined value *)
Lemma undef_or (v : value) : v = VUndef \/ forall T (a b : T), match v with VUndef => a | _ => b end = b.
Proof. destruct v; auto. Qed.

Lemma capture_ok (s : Cm unit) n o x n' : s n = (o, Ok (x, n')) -> capture s n = ([], Ok (o, n')).
Proof. intros H. unfold capture. rewrite H. reflexivity. Qed.
Lemma capture_fault (s : Cm unit) n o r e : s n = (o, r) -> classify r = inr e -> capture s n = ([], of_fault e).
Proof. intros H Hc. unfold capture. rewrite H. destruct r as [[x n']| | | | | ]; cbn in Hc; inversion Hc; reflexivity. Qed.

Section Cmd.
Variable cf : cfg.
Variable w : node -> M value.
Variable l : level.
Hypothesis Hw : w_ok w l.
Hypothesis Hreg : wf_registry (c_reg cf) = true.
Variable entry : env.
Variable md : N.

Lemma block_let en c x rest :
  let_name c = Some x ->
  block l entry md en (c :: rest) = (v <~~ l_let l entry en md c ;; block l entry md ((x, v) :: en) rest).
Proof. destruct c; intros H; try discriminate H; inversion H; reflexivity. Qed.
Lemma block_cmd en c rest :
  let_name c = None ->
  block l entry md en (c :: rest) = (_ <~~ ex l entry md en c ;; block l entry md en rest).
Proof. destruct c; intros H; try discriminate H; reflexivity. Qed.

Lemma cmd_rel n st en c :
  wf KCmd n = true -> good st -> ctx st = c -> mode st = md -> R c en entry ->
  rel st (w n st) (ex l entry md en n (next_id st)) (@Qc value unit c md).
Proof.
  intros Hwf Hg Hc Hm HR. unfold ex. rewrite <- Hc, <- Hm.
  apply (ok_cmd _ _ Hw); [assumption | assumption | rewrite Hc; assumption].
Qed.

(* renderBlock: the text goes to a fresh buffer and comes back as a string *)
Lemma render_block_rel body st en c :
  wf KCmd body = true -> good st -> ctx st = c -> mode st = md -> R c en entry ->
  rel st (render_block w body st) (capture (ex l entry md en body) (next_id st)) (Qe c md).
Proof.
  intros Hwf Hg Hc Hm HR.
  pose proof (cmd_rel body (buf_pushed st) en c Hwf Hg Hc Hm HR) as H.
  rewrite render_block_eq.
  change (next_id (buf_pushed st)) with (next_id st) in H.
  destruct (ex l entry md en body (next_id st)) as [o r] eqn:Es.
  destruct (w body (buf_pushed st)) as [r' st2]. unfold rel in H. cbn [fst snd] in *.
  destruct (classify r) as [[y n1]|e] eqn:Ec.
  - apply classify_ok in Ec. subst r. rewrite (capture_ok _ _ _ _ _ Es).
    destruct H as (x & Hx & Hg2 & (ws & Ews & Hem) & Hn & Hc2 & Hm2). subst r'.
    cbn [classify bufs buf_pushed set_bufs] in Hem |- *. destruct Hem as [Ho Hb]. rewrite Hb.
    apply rel_ok; [exact Hg2 | apply emits_same; [exact Ho | reflexivity] | exact Hn |].
    split; [rewrite app_nil_r; exact Ews | split; assumption].
  - destruct H as [Hx Hf]. subst r'. rewrite classify_of_fault, (capture_fault _ _ _ _ _ Es Ec).
    unfold rel. cbn [fst snd]. rewrite classify_of_fault.
    split; [reflexivity|]. unfold fails in Hf |- *. cbn [bufs buf_pushed set_bufs out] in Hf.
    destruct (bufs st); [exists []; split; [reflexivity | exact Hf] | exact Hf].
Qed.

Lemma block_rel ns : forallb (wf KItem) ns = true -> forall st en,
  good st -> top_unentered (ctx st) -> mode st = md -> R (ctx st) en entry ->
  rel st (walk_list w ns st) (block l entry md en ns (next_id st))
      (fun _ _ st1 => tl (ctx st1) = tl (ctx st) /\ mode st1 = md).
Proof.
  induction ns as [|n ns IH]; intros Hwf st en Hg Ht Hm HR.
  - apply rel_ret; [assumption | split; [reflexivity | assumption]].
  - cbn [forallb] in Hwf. apply andb_prop in Hwf. destruct Hwf as [H1 H2].
    cbn [walk_list]. destruct (let_name n) as [x|] eqn:Eln.
    + rewrite (block_let _ _ _ _ Eln).
      eapply rel_bind.
      * rewrite <- Hm. apply (ok_let _ _ Hw n x); assumption.
      * cbv beta. intros _ v st1 [Hc1 Hm1] Hg1.
        eapply rel_mono.
        { apply IH; try assumption.
          - rewrite Hc1. apply top_unentered_set; assumption.
          - rewrite Hm1; assumption.
          - rewrite Hc1. apply R_set; assumption. }
        cbv beta. intros _ _ s2 [K1 K2]. split; [|assumption].
        rewrite K1, Hc1. apply tl_sc_set.
    + rewrite (block_cmd _ _ _ Eln). rewrite (wf_item_cmd _ Eln) in H1.
      eapply rel_bind.
      * apply (cmd_rel n st en (ctx st)); auto.
      * cbv beta. intros _ _ st1 [Hc1 Hm1] Hg1.
        eapply rel_mono.
        { apply IH; try assumption; rewrite Hc1; assumption. }
        cbv beta. intros _ _ s2 [K1 K2]. split; [|assumption]. rewrite K1, Hc1. reflexivity.
Qed.

Section Ctx.
Variable en : env.
Variable c : scope.
Hypothesis HR : R c en entry.
Let Hen : env_eq en (flatten c) := R_env _ _ _ HR.

(* [cstep L]: the bind rule [rel_bind] with lemma [L] for the first half, introducing what [L] concludes;
   [xstep L]: the same for an expression lemma of Proofs/ScopeExprProofs.v (equal values, scope and mode unchanged);
   [done_c]: both sides return ([rel_ret]) *)
Ltac cstep L := eapply rel_bind; [ eapply L; eauto | cbv beta; intros ? ? ? (? & ?) ? ].
Ltac xstep L := eapply rel_bind; [ eapply (L w l Hw en c md Hen); eauto | cbv beta; intros ? ? ? (-> & ? & ?) ? ].
Ltac done_c := apply rel_ret; [assumption | split; assumption].

(* a step whose value the walker drops *)
Lemma rel_drop {A B} (m : M A) (v : B) (s : Cm unit) st :
  rel st (m st) (s (next_id st)) (@Qc A unit c md) ->
  rel st ((_ <-- m ;;; ret v) st) (s (next_id st)) (@Qc B unit c md).
Proof. intros H. eapply rel_bind_r; [exact H|]. cbv beta. intros _ [] st1 [Hc1 Hm1] Hg1. done_c. Qed.

Lemma cmd_unit n st :
  wf KCmd n = true -> good st -> ctx st = c -> mode st = md ->
  rel st ((_ <-- w n ;;; ret VUndef) st) (ex l entry md en n (next_id st)) (@Qc value unit c md).
Proof. intros Hwf Hg Hc Hm. apply rel_drop, (cmd_rel n st en c); assumption. Qed.

Lemma if_conds_rel cs : forallb (wf KIfCond) cs = true -> forall st,
  good st -> ctx st = c -> mode st = md ->
  rel st (if_conds w cs st) (if_spec l entry md en cs (next_id st)) (@Qc value unit c md).
Proof.
  induction cs as [|n cs IH]; intros Hwf st Hg Hc Hm; cbn [if_conds if_spec].
  - done_c.
  - cbn [forallb] in Hwf. apply andb_prop in Hwf. destruct Hwf as [H1 H2].
    destruct n; try apply rel_fail. cbn [wf] in H1. apply andb_prop in H1. destruct H1 as [H1 H3].
    destruct cond as [cnd|].
    + xstep eval_rel. destruct (truthy y); [apply cmd_unit; assumption | apply IH; assumption].
    + apply cmd_unit; assumption.
Qed.

Lemma switch_cases_rel sv cs : forallb (wf KCase) cs = true -> forall st,
  good st -> ctx st = c -> mode st = md ->
  rel st (switch_cases w sv cs st) (switch_spec l entry md en sv cs (next_id st)) (@Qc value unit c md).
Proof.
  induction cs as [|n cs IH]; intros Hwf st Hg Hc Hm; cbn [switch_cases switch_spec].
  - done_c.
  - cbn [forallb] in Hwf. apply andb_prop in Hwf. destruct Hwf as [H1 H2].
    destruct n; try apply rel_fail. cbn [wf] in H1. apply andb_prop in H1. destruct H1 as [H1 H3].
    xstep case_hit_rel.
    destruct (y || match values with [] => true | _ :: _ => false end);
      [apply cmd_unit; assumption | apply IH; assumption].
Qed.

Lemma plural_pick_rel mp i dflt cs :
  forallb (wf KMsgItem) dflt = true -> forallb (wf KPluralCase) cs = true -> forall st,
  good st -> ctx st = c -> mode st = md ->
  rel st (plural_pick w mp i dflt cs st) (plural_spec l entry md en mp i dflt cs (next_id st)) (@Qc unit unit c md).
Proof.
  intros Hd. induction cs as [|n cs IH]; intros Hwf st Hg Hc Hm; cbn [plural_pick plural_spec].
  - apply rel_drop, (cmd_rel (NMsg mp 0 [] [] dflt) st en c); assumption.
  - cbn [forallb] in Hwf. apply andb_prop in Hwf. destruct Hwf as [H1 H2].
    destruct n; try apply rel_fail. cbn [wf] in H1.
    destruct (i =? v)%Z; [|apply IH; assumption].
    apply rel_drop, (cmd_rel (NMsg mp 0 [] [] body) st en c); assumption.
Qed.

Lemma msg_body_rel mp ns : forallb (wf KMsgItem) ns = true -> forall st,
  good st -> ctx st = c -> mode st = md ->
  rel st (msg_body w mp ns st) (msg_spec l entry md en mp ns (next_id st)) (@Qc unit unit c md).
Proof.
  induction ns as [|n ns IH]; intros Hwf st Hg Hc Hm; cbn [msg_body msg_spec].
  - done_c.
  - cbn [forallb] in Hwf. apply andb_prop in Hwf. destruct Hwf as [H1 H2].
    destruct n; try (apply IH; assumption).
    + cstep (cmd_rel (NRawText p text) st en c). apply IH; assumption.
    + cbn [wf] in H1. cstep (cmd_rel n st en c). apply IH; assumption.
    + cbn [wf] in H1. apply andb_prop in H1. destruct H1 as [H1 H5].
      apply andb_prop in H1. destruct H1 as [H3 H4].
      xstep eval_rel. destruct y; try apply rel_fail.
      cstep plural_pick_rel. apply IH; assumption.
Qed.

Definition loopframe (f : frame) (var : bstr) (last : Z) : Prop :=
  f_entered f = false /\
  forall k, bstr_eqb k (var ++ s_index) = false -> bstr_eqb k var = false ->
            assoc_s k (f_vars f) = assoc_s k [(var ++ s_lastindex, VInt last)].

Lemma R_loop f var last x i :
  loopframe f var last ->
  R (sc_set (sc_set (f :: c) var x) (var ++ s_index) (VInt i))
    ((var ++ s_index, VInt i) :: (var, x) :: (var ++ s_lastindex, VInt last) :: en) entry.
Proof.
  intros [He Hl]. rewrite !sc_set_cons. cbn [f_vars f_entered f_origin]. split.
  - intros k. cbn [flatten f_vars]. rewrite assoc_s_app, !assoc_s_map_set. cbn [assoc_s].
    destruct (bstr_eqb k (var ++ s_index)) eqn:E1; [reflexivity|].
    destruct (bstr_eqb k var) eqn:E2; [reflexivity|].
    rewrite (Hl k E1 E2). cbn [assoc_s].
    destruct (bstr_eqb k (var ++ s_lastindex)); [reflexivity | apply Hen].
  - pose proof HR as HR0. destruct HR0 as [_ (s0 & Hs & H2)]. exists s0. split; [|exact H2].
    cbn [sc_alldata f_entered]. rewrite He. exact Hs.
Qed.

Lemma loopframe_step f var last x i :
  loopframe f var last ->
  exists f', sc_set (sc_set (f :: c) var x) (var ++ s_index) (VInt i) = f' :: c /\ loopframe f' var last.
Proof.
  intros [He Hl]. rewrite !sc_set_cons. eexists. split; [reflexivity|]. split; [exact He|].
  intros k E1 E2. cbn [f_vars]. rewrite !assoc_s_map_set, E1, E2. apply Hl; assumption.
Qed.

Lemma for_items_rel var body last items : wf KCmd body = true -> forall i st f,
  good st -> ctx st = f :: c -> loopframe f var last -> mode st = md ->
  rel st (for_items w var body i items st) (for_spec l entry md en var body last i items (next_id st))
      (fun _ _ st1 => tl (ctx st1) = c /\ mode st1 = md).
Proof.
  intros Hwf. induction items as [|x r IH]; intros i st f Hg Hc Hl Hm; cbn [for_items for_spec].
  - apply rel_ret; [assumption | split; [rewrite Hc; reflexivity | assumption]].
  - eapply rel_bind_l; [apply (rel_m_set st var x (f :: c) md); [assumption | assumption | discriminate | assumption]|].
    cbv beta. intros _ st1 [Hc1 Hm1] Hg1.
    eapply rel_bind_l; [apply (rel_m_set st1 (var ++ s_index) (VInt i) (sc_set (f :: c) var x) md); [assumption | exact Hc1 | rewrite sc_set_cons; discriminate | assumption]|].
    cbv beta. intros _ st2 [Hc2 Hm2] Hg2.
    destruct (loopframe_step f var last x i Hl) as (f' & Ef & Hl').
    eapply rel_bind.
    + apply (cmd_rel body st2 _ _ Hwf Hg2 Hc2 Hm2). apply R_loop; assumption.
    + cbv beta. intros _ _ st3 [Hc3 Hm3] Hg3. apply (IH (i + 1)%Z st3 f'); try assumption.
      rewrite Hc3. exact Ef.
Qed.

Definition cd_ok (cd : scope) (acc base : env) : Prop :=
  exists f r, cd = f :: r /\ f_entered f = false /\ env_eq acc (f_vars f) /\ env_eq base (flatten r).

Lemma cd_ok_fresh r base : env_eq base (flatten r) -> cd_ok (fresh_frame :: r) [] base.
Proof. intros H. exists fresh_frame, r. split; [reflexivity|]. split; [reflexivity|]. split; [apply env_eq_refl | exact H]. Qed.

Lemma call_data_rel alldata dat st :
  match dat with Some e => wf KExpr e | None => true end = true ->
  good st -> ctx st = c -> mode st = md ->
  rel st (call_data w alldata dat st) (base_spec l entry en alldata dat (next_id st))
      (fun cd base st1 => ctx st1 = c /\ mode st1 = md /\ cd_ok cd [] base).
Proof.
  intros Hwf Hg Hc Hm. unfold call_data, base_spec. change (mbind get ?f st) with (f st st). cbv beta.
  destruct alldata.
  - pose proof HR as HR0. destruct HR0 as [_ (s0 & Hs & H2)]. rewrite Hc, Hs.
    apply rel_ret; [assumption|]. split; [assumption|]. split; [assumption | apply cd_ok_fresh, H2].
  - destruct dat as [e|].
    + xstep eval_rel. destruct y; try apply rel_fail.
      apply rel_ret; [assumption|]. split; [assumption|]. split; [assumption | apply cd_ok_fresh].
      cbn [flatten f_vars new_scope]. rewrite app_nil_r. apply env_eq_refl.
    + apply rel_ret; [assumption|]. split; [assumption|]. split; [assumption | apply cd_ok_fresh, env_eq_refl].
Qed.

Lemma cd_ok_set cd acc base k v : cd_ok cd acc base -> cd_ok (sc_set cd k v) ((k, v) :: acc) base.
Proof.
  intros (f & r & -> & He & Ha & Hb). rewrite sc_set_cons. eexists _, r. split; [reflexivity|].
  split; [exact He|]. split; [apply env_eq_map_set; exact Ha | exact Hb].
Qed.

Lemma call_params_rel base ps : forallb (wf KParam) ps = true -> forall cd acc st,
  good st -> ctx st = c -> mode st = md -> cd_ok cd acc base ->
  rel st (call_params w ps cd st) (params_spec l entry md en ps acc (next_id st))
      (fun cd' ps' st1 => ctx st1 = c /\ mode st1 = md /\ cd_ok cd' ps' base).
Proof.
  induction ps as [|n ps IH]; intros Hwf cd acc st Hg Hc Hm Hcd; cbn [call_params params_spec].
  - apply rel_ret; [assumption|]. split; [assumption|]. split; assumption.
  - cbn [forallb] in Hwf. apply andb_prop in Hwf. destruct Hwf as [H1 H2].
    destruct n; try apply rel_fail; cbn [wf] in H1.
    + xstep eval_rel. apply IH; try assumption. apply cd_ok_set; assumption.
    + eapply rel_bind; [apply (render_block_rel n st en c); assumption|].
      cbv beta. intros ? ? ? (-> & ? & ?) ?. apply IH; try assumption. apply cd_ok_set; assumption.
Qed.

Lemma call_enter_rel callee cd ps base st :
  wf KTemplate (t_node callee) = true -> good st -> ctx st = c -> mode st = md -> cd_ok cd ps base ->
  rel st (call_enter w callee cd st)
      (l_exec l (ps ++ base) (ps ++ base) (call_mode (t_ns_autoescape callee)) (t_node callee) (next_id st))
      (@Qc value unit c md).
Proof.
  intros Hwf Hg Hc Hm (f & r & -> & He & Ha & Hb). rewrite call_enter_eq. cbv zeta.
  set (ste := entered st callee (f :: r)).
  assert (HRe : R (ctx ste) (ps ++ base) (ps ++ base)).
  { assert (Hfl : env_eq (ps ++ base) (f_vars f ++ flatten r)) by (apply env_eq_app; assumption).
    split; [exact Hfl|]. eexists. split; [reflexivity | exact Hfl]. }
  pose proof (ok_tmpl _ _ Hw (t_node callee) ste _ _ Hwf Hg HRe) as H.
  change (next_id ste) with (next_id st) in H.
  change (mode ste) with (call_mode (t_ns_autoescape callee)) in H.
  unfold rel in H |- *.
  destruct (l_exec l (ps ++ base) (ps ++ base) (call_mode (t_ns_autoescape callee)) (t_node callee) (next_id st)) as [o r0].
  destruct (w (t_node callee) ste) as [r' st2]. cbn [fst snd] in *.
  destruct (classify r0) as [[y n1]|e].
  - destruct H as (x & Hx & Hg2 & Hem & Hn & Hc2). subst r'. cbn [classify].
    exists VUndef. split; [reflexivity|]. split; [exact Hg2|].
    split; [apply (emits_final st st2); [reflexivity | reflexivity |]; apply (emits_init st ste); [reflexivity | reflexivity | exact Hem]|].
    split; [exact Hn|]. split; [exact Hc | exact Hm].
  - destruct H as [Hx Hf]. subst r'. rewrite classify_of_fault. split; [reflexivity|].
    apply (fails_final st st2); [reflexivity|]. apply (fails_init st ste); [reflexivity | reflexivity | exact Hf].
Qed.

Lemma find_template_wf ts name t :
  forallb (fun t => wf KTemplate (t_node t)) ts = true -> find_template ts name = Some t ->
  wf KTemplate (t_node t) = true.
Proof.
  induction ts as [|t0 ts IH]; cbn [find_template forallb]; [discriminate|].
  intros Hwf Hf. apply andb_prop in Hwf. destruct Hwf as [H1 H2].
  destruct (bstr_eqb (t_name t0) name); [inversion Hf; subst; exact H1 | apply IH; assumption].
Qed.

Lemma rel_pop (m : M unit) (s : Cm unit) st :
  rel st (m st) (s (next_id st)) (fun _ _ st2 => tl (ctx st2) = c /\ mode st2 = md) ->
  rel st ((_ <-- m ;;; _ <-- m_pop ;;; ret VUndef) st) (s (next_id st)) (@Qc value unit c md).
Proof.
  intros H. eapply rel_bind_r; [exact H|]. cbv beta. intros _ [] st2 [Hc2 Hm2] Hg2.
  apply rel_modify_ghost; try reflexivity. apply rel_ret; [exact Hg2 | split; [exact Hc2 | exact Hm2]].
Qed.

Lemma rel_push_pop (m : M unit) (s : Cm unit) st :
  good st -> ctx st = c -> mode st = md ->
  (forall st1, good st1 -> ctx st1 = sc_push c -> mode st1 = md -> out st1 = out st -> bufs st1 = bufs st ->
     next_id st1 = next_id st ->
     rel st1 (m st1) (s (next_id st1)) (fun _ _ st2 => tl (ctx st2) = c /\ mode st2 = md)) ->
  rel st ((_ <-- m_push ;;; _ <-- m ;;; _ <-- m_pop ;;; ret VUndef) st) (s (next_id st)) (@Qc value unit c md).
Proof.
  intros Hg Hc Hm H. apply rel_modify_ghost; try reflexivity. apply rel_pop.
  apply H; try reflexivity; [exact Hg | cbn [ctx set_ctx]; rewrite Hc; reflexivity | exact Hm].
Qed.

(* every command clause of walk_node (let and template apart) *)
Lemma cmd_case n st :
  wf KCmd n = true -> good st -> ctx st = c -> mode st = md ->
  rel st (walk_node cf w n st) (exec_body cf l entry md en n (next_id st)) (@Qc value unit c md).
Proof.
  intros Hwf Hg Hc Hm.
  destruct n; try discriminate Hwf; cbn [walk_node exec_body]; cbn [wf] in Hwf.
  - apply rel_push_pop; try assumption. intros st1 Hg1 Hc1 Hm1 _ _ _.
    eapply rel_mono.
    + apply (block_rel nodes Hwf st1 en); try assumption.
      * rewrite Hc1. apply top_unentered_push.
      * rewrite Hc1. apply R_push. exact HR.
    + cbv beta. intros _ _ s2 [K1 K2]. split; [rewrite K1, Hc1; reflexivity | exact K2].
  - apply rel_drop, rel_write; assumption.
  - apply andb_prop in Hwf. destruct Hwf as [H1 H2].
    eapply rel_bind with (Q1 := Qe c md).
    { rewrite <- Hc, <- Hm. apply (ok_expr _ _ Hw); [assumption | assumption | rewrite Hc; exact Hen]. }
    cbv beta. intros ? v st1 (-> & Hc1 & Hm1) Hg1.
    destruct (undef_or v) as [->|Hv]; [apply rel_fail|]. rewrite (Hv (M value)), (Hv (Cm unit)).
    eapply rel_bind; [apply (print_dirs_rel cf w l Hw en c md Hen dirs H2 v); assumption|].
    cbv beta. intros ? ds st2 (-> & Hc2 & Hm2) Hg2.
    eapply rel_bind; [apply (rel_lift _ _ c md); assumption|].
    cbv beta. intros ? s0 st3 (-> & Hc3 & Hm3) Hg3.
    change (mbind get ?f st3) with (f st3 st3). cbv beta. rewrite Hm3.
    eapply rel_bind; [apply (rel_lift _ _ c md); assumption|].
    cbv beta. intros ? ws st4 (-> & Hc4 & Hm4) Hg4.
    apply rel_drop, rel_write_all; assumption.
  - eapply rel_bind with (Q1 := Qe c md).
    { destruct expr as [x|].
      - xstep eval_rel.
        eapply rel_bind; [apply (rel_lift _ _ c md); assumption|].
        cbv beta. intros ? ? ? (-> & ? & ?) ?. apply rel_ret; [assumption | split; [reflexivity | split; assumption]].
      - apply rel_ret; [assumption | split; [reflexivity | split; assumption]]. }
    cbv beta. intros ? pre st1 (-> & Hc1 & Hm1) Hg1.
    apply rel_drop, rel_write; assumption.
  - eapply rel_bind; [apply (render_block_rel n st en c); assumption|].
    cbv beta. intros ? ? ? (-> & ? & ?) ?. done_c.
  - done_c.
  - apply if_conds_rel; assumption.
  - apply andb_prop in Hwf. destruct Hwf as [H12 H3]. apply andb_prop in H12. destruct H12 as [H1 H2].
    xstep eval_rel. destruct y; try apply rel_fail.
    destruct l0 as [|x0 r0].
    + destruct ifempty as [ie|]; [apply cmd_unit; assumption | done_c].
    + unfold m_push. apply rel_modify_ghost; try reflexivity.
      set (st2 := set_ctx st1 (sc_push (ctx st1))).
      assert (Hc2 : ctx st2 = sc_push c) by (unfold st2; cbn [ctx set_ctx]; rewrite H; reflexivity).
      rewrite <- mbind_assoc. apply rel_pop.
      eapply rel_bind_l; [apply (rel_m_set st2 (var ++ s_lastindex) (VInt (Z.of_nat (length (x0 :: r0)) - 1)) _ md H4 Hc2); [discriminate | assumption]|].
      cbv beta. intros _ st3 [Hc3 Hm3] Hg3. unfold sc_push in Hc3. rewrite sc_set_cons in Hc3.
      eapply (for_items_rel var n2 _ (x0 :: r0) H2 0%Z st3 _ Hg3 Hc3); [|exact Hm3].
      split; [reflexivity|]. intros k _ _. reflexivity.
  - apply andb_prop in Hwf. destruct Hwf as [H1 H2].
    xstep eval_rel. apply switch_cases_rel; assumption.
  - apply andb_prop in Hwf. destruct Hwf as [H1 H2].
    destruct (find_template (r_templates (c_reg cf)) name) as [callee|] eqn:Ef; [|apply rel_fail].
    eapply rel_bind; [apply call_data_rel; assumption|].
    cbv beta. intros cd base st1 (Hc1 & Hm1 & Hcd) Hg1.
    eapply rel_bind; [apply (call_params_rel base params H2 cd [] st1); assumption|].
    cbv beta. intros cd' ps st2 (Hc2 & Hm2 & Hcd') Hg2.
    apply rel_modify_ghost; try reflexivity.
    apply call_enter_rel; try assumption.
    eapply find_template_wf; [exact Hreg | exact Ef].
  - apply rel_drop, msg_body_rel; assumption.
  - apply rel_drop, rel_write; assumption.
  - done_c.
Qed.

End Ctx.

End Cmd.

(* walk_body only records the position first *)
Lemma walk_body_rel {B} cf w n st sr (Q : value -> B -> mstate -> Prop) :
  rel (set_cur st (pos_of n)) (walk_node cf w n (set_cur st (pos_of n))) sr Q -> rel st (walk_body cf w n st) sr Q.
Proof. exact (rel_init st _ _ sr Q eq_refl eq_refl). Qed.

Lemma w_ok_step cf w l :
  wf_registry (c_reg cf) = true -> w_ok w l -> w_ok (walk_body cf w) (next_level cf l).
Proof.
  intros Hreg Hw. split.
  - intros e st en Hwf Hg Hen. apply walk_body_rel.
    apply (expr_rel cf w l Hw en (ctx st) (mode st) Hen e (set_cur st (pos_of e)) Hwf Hg); reflexivity.
  - intros c st en entry Hwf Hg HR. apply walk_body_rel.
    apply (cmd_case cf w l Hw Hreg entry (mode st) en (ctx st) HR c (set_cur st (pos_of c)) Hwf Hg); reflexivity.
  - intros c x st en entry Hwf Hl Hg HR Ht. apply walk_body_rel.
    set (st0 := set_cur st (pos_of c)).
    assert (Hc0 : ctx st0 = ctx st) by reflexivity. assert (Hm0 : mode st0 = mode st) by reflexivity.
    assert (Hne : ctx st <> []) by (destruct Ht as (f & r & -> & _); discriminate).
    change (next_id st) with (next_id st0).
    destruct c; try discriminate Hl; inversion Hl; subst x; cbn [wf item_kind] in Hwf;
      cbn [walk_node next_level l_let let_body].
    + eapply rel_bind_r with (Q1 := Qe (ctx st) (mode st)).
      * apply (eval_rel w l Hw en (ctx st) (mode st) (R_env _ _ _ HR)); assumption.
      * cbv beta. intros ? v st1 (-> & Hc1 & Hm1) Hg1.
        eapply rel_bind_l; [apply (rel_m_set st1 name v (ctx st) (mode st)); assumption|].
        cbv beta. intros _ st2 [Hc2 Hm2] Hg2. apply rel_ret; [assumption | split; assumption].
    + eapply rel_bind with (Q1 := Qe (ctx st) (mode st)).
      * apply (render_block_rel w l Hw entry (mode st) c st0 en (ctx st)); assumption.
      * cbv beta. intros ? s0 st1 (-> & Hc1 & Hm1) Hg1.
        eapply rel_bind_l; [apply (rel_m_set st1 name (VStr s0) (ctx st) (mode st)); assumption|].
        cbv beta. intros _ st2 [Hc2 Hm2] Hg2. apply rel_ret; [assumption | split; assumption].
  - intros t st en entry Hwf Hg HR. apply walk_body_rel.
    set (st0 := set_cur st (pos_of t)). change (next_id st) with (next_id st0).
    destruct t; try discriminate Hwf. cbn [wf] in Hwf. cbn [walk_node next_level l_exec exec_body].
    apply rel_modify_ghost; try reflexivity.
    set (st1 := set_mode _ _).
    eapply rel_bind_r.
    + apply (cmd_rel w l Hw entry (mode st1) t st1 en (ctx st)); try assumption; reflexivity.
    + cbv beta. intros _ [] st2 [Hc2 Hm2] Hg2. apply rel_ret; [assumption | exact Hc2].
Qed.

Lemma w_ok_zero cf : w_ok (walk cf 0) level0.
Proof.
  split; intros; unfold walk, lift, level0; cbn [l_eval l_exec l_let sE];
    (split; [reflexivity | apply fails_refl]).
Qed.

Theorem walk_sim cf fuel : wf_registry (c_reg cf) = true -> w_ok (walk cf fuel) (spec_level cf fuel).
Proof.
  intros Hreg. induction fuel as [|f IH]; [apply w_ok_zero|].
  change (w_ok (walk_body cf (walk cf f)) (next_level cf (spec_level cf f))).
  apply w_ok_step; assumption.
Qed.

(* [m] is [s] up to the line-number computation of errRecover, which is C19's
   subject: an [Err] may surface as the slice panic of Registry.LineNumber *)
Definition outcome_agrees (m s : outcome unit) : Prop :=
  m = s \/ exists e, s = Err e /\ m = Crash Interp.e_index.

Lemma R_init data_id data :
  R (sc_enter (new_scope data_id data)) data data.
Proof.
  assert (H : env_eq data (data ++ [])) by (rewrite app_nil_r; apply env_eq_refl).
  split; [exact H|]. eexists. split; [reflexivity | exact H].
Qed.

Theorem exec_impl_spec_lemma cf fuel name data_id data first_id :
  wf_registry (c_reg cf) = true ->
  let r := render cf fuel name data_id data None None first_id in
  let s := render_spec cf fuel name data first_id in
  concat_b (rr_writes r) = sr_out s /\ outcome_agrees (rr_outcome r) (sr_outcome s).
Proof.
  intros Hreg. unfold render, render_spec.
  destruct (find_template (r_templates (c_reg cf)) name) as [t|] eqn:Ef.
  2:{ cbn. split; [reflexivity | left; reflexivity]. }
  set (st0 := init_state _ _ _ _ _ _).
  pose proof (ok_tmpl _ _ (walk_sim cf fuel Hreg) (t_node t) st0 data data
                (find_template_wf _ _ _ Hreg Ef) (conj eq_refl eq_refl) (R_init data_id data)) as H.
  change (mode st0) with (entry_mode (t_ns_autoescape t)) in H.
  change (next_id st0) with first_id in H.
  unfold exec_spec. unfold rel in H.
  destruct (l_exec (spec_level cf fuel) data data (entry_mode (t_ns_autoescape t)) (t_node t) first_id) as [o r0].
  destruct (walk cf fuel (t_node t) st0) as [r' st]. cbn [fst snd] in H.
  destruct (classify r0) as [[y n1]|e] eqn:Ec.
  - apply classify_ok in Ec. subst r0.
    destruct H as (x & -> & _ & (ws & Ews & Ho & _) & _). cbn [rr_writes rr_outcome sr_out sr_outcome].
    change (out st0) with (@nil bstr) in Ho. rewrite Ho, app_nil_r. split; [exact Ews | left; reflexivity].
  - destruct H as [-> (ws & Ews & Ho)]. change (out st0) with (@nil bstr) in Ho. rewrite app_nil_r in Ho.
    apply classify_fault in Ec. subst r0.
    destruct e; cbn [of_fault rr_writes rr_outcome sr_out sr_outcome recast];
      try (split; [rewrite Ho; exact Ews | left; reflexivity]).
    destruct (assoc_s name (r_sources (c_reg cf))) as [src|]; [|cbn; split; [rewrite Ho; exact Ews | left; reflexivity]].
    destruct (assoc_s name (r_files (c_reg cf))) as [file|]; [|cbn; split; [rewrite Ho; exact Ews | left; reflexivity]].
    destruct (line_number src (cur st)); cbn; (split; [rewrite Ho; exact Ews|]).
    + left; reflexivity.
    + right. exists m. split; reflexivity.
Qed.

Lemma exec_impl_spec_ok_lemma cf fuel name data_id data first_id :
  wf_registry (c_reg cf) = true ->
  (rr_outcome (render cf fuel name data_id data None None first_id) = Ok tt <->
   sr_outcome (render_spec cf fuel name data first_id) = Ok tt).
Proof.
  intros Hreg.
  destruct (exec_impl_spec_lemma cf fuel name data_id data first_id Hreg) as [_ [H | (e & H1 & H2)]].
  - rewrite H. tauto.
  - rewrite H1, H2. split; discriminate.
Qed.

(* the walker leaves the scope stack and the autoescape mode exactly as it found them *)
Theorem walk_restores_scope cf fuel c st en entry v st' :
  wf_registry (c_reg cf) = true -> wf KCmd c = true -> good st -> R (ctx st) en entry ->
  walk cf fuel c st = (Ok v, st') -> ctx st' = ctx st /\ mode st' = mode st.
Proof.
  intros Hreg Hwf Hg HR Hrun.
  pose proof (ok_cmd _ _ (walk_sim cf fuel Hreg) c st en entry Hwf Hg HR) as H.
  rewrite Hrun in H. unfold rel in H. cbn [fst snd] in H.
  destruct (classify _) as [[y n1]|e].
  - destruct H as (x & _ & _ & _ & _ & K). exact K.
  - destruct H as [K _]. destruct e; discriminate K.
Qed.
