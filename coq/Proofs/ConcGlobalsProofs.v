(* C09 — the package-level state and the write sites enumerated from the Go
   sources (Generated/PkgState.v, go/cmd/tablegen/pkgvars.go) satisfy what the
   review concluded (Model/ConcGlobals.v).  Every proof is a computation on the
   generated lists: it is re-run against the current sources on every check. *)
From Coq Require Import List Bool NArith.
From Soy Require Import Model.Bytes Generated.PkgState Model.ConcGlobals.
From Soy Require Import Proofs.BytesBase.
Import ListNotations.
Open Scope N_scope.

Lemma bstr_eqb_to_eq : forall x y, bstr_eqb x y = true -> x = y.
Proof. exact bstr_eqb_true. Qed.

(* the only package-level variable whose kind can hold mutable state is the verification hook:
   no pool, lock, Once, channel, uninitialised or lazily assigned variable, no object returned by a call *)
Lemma loud_vars_reviewed : loud_vars pkg_vars = reviewed_loud_vars.
Proof. vm_compute. reflexivity. Qed.

Lemma package_vars_quiet :
  forall d n k, In (d, n, k) pkg_vars -> kind_quiet k = true \/ In (d, n, k) reviewed_loud_vars.
Proof.
  intros d n k Hin. destruct (kind_quiet k) eqn:E; [left; reflexivity|right].
  rewrite <- loud_vars_reviewed. unfold loud_vars. apply filter_In. split; [exact Hin|]. now rewrite E.
Qed.

(* every write to a package-level variable in the non-test sources of the library is in an init function *)
Lemma package_writes_only_in_init : forall w, In w pkg_var_writes -> write_in_init w = true.
Proof. apply forallb_forall. vm_compute. reflexivity. Qed.

(* every method called on a package-level variable of the library is one of the reviewed read-only
   (regexp, replacer) or internally locked (logger) methods *)
Lemma package_methods_reviewed : forall m, In m pkg_var_methods -> method_reviewed m = true.
Proof. apply forallb_forall. vm_compute. reflexivity. Qed.

(* every write through a syntax-tree / registry / bundle typed value in soyhtml, soyjs and template,
   directly or in a callee of any package, is Registry.Add building the registry under compilation, a
   capped append, or the reviewed latent hazard (the queue of ast.MsgNode.Placeholder) *)
Lemma shared_type_writes_benign : forall w, In w shared_type_writes -> shared_write_benign w = true.
Proof. apply forallb_forall. vm_compute. reflexivity. Qed.

(* (That the reviewed latent hazard is present in the sources is NOT an obligation: a tree without it, such
   as the one after notes/not-applied/C09-placeholder-queue-private.diff, satisfies the lemma as well.  The
   harness reports a difference from bin/c09_pkgstate_reviewed.json in the evidence.) *)

(* the JavaScript generator contains no statement that writes through such a value, the reviewed latent
   hazard excepted *)
Lemma soyjs_never_writes_through_shared_types :
  forall w, In w (filter (in_pkg k_soyjs) shared_type_writes) -> reviewed_latent w = true.
Proof. apply forallb_forall. vm_compute. reflexivity. Qed.

(* the renderer: nothing but capped appends, the reviewed latent hazard excepted *)
Lemma soyhtml_writes_through_shared_types_only_capped :
  forall w, In w (filter (in_pkg k_soyhtml) shared_type_writes) -> kind_of_write w = k_capped \/ reviewed_latent w = true.
Proof.
  intros w Hin.
  assert (H : forallb (fun w => bstr_eqb (kind_of_write w) k_capped || reviewed_latent w) (filter (in_pkg k_soyhtml) shared_type_writes) = true)
    by (vm_compute; reflexivity).
  rewrite forallb_forall in H. apply H in Hin. apply orb_true_iff in Hin.
  destruct Hin as [Hk|Hr]; [left; apply bstr_eqb_to_eq; exact Hk|right; exact Hr].
Qed.
