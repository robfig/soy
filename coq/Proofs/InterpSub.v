(* One unfolding of the walker, as a statement about the nodes it actually hands to [w].

   [walk_body cf w n] is parametric in [w].  For a relation between computations
   [Phi : forall A, M A -> M A -> Prop] closed under the structure of the monad, the primitives
   (each related to itself) and the brackets whose two halves are not related separately
   ([body_logic]), theorem [bphi_walk_body]:

     Phi (set_cur (pos_of n)) (set_cur (pos_of n))  ->
     (on a template node: Phi of the step that sets the autoescape mode)  ->
     Forall (fun c => Phi (w1 c) (w2 c)) (subnodes n)  ->
     (forall callee cd, callee_of cf n = Some callee -> Phi (call_enter w1 callee cd) (call_enter w2 callee cd))  ->
     Phi (walk_body cf w1 n) (walk_body cf w2 n)

   with one lemma per hoisted loop.  [subnodes n] lists the nodes one unfolding passes to [w]; the
   callee of a {call} is treated apart because it runs in a different state -- depth, scope,
   autoescape -- and clients usually establish it by another argument.  The walker's own [set_cur]
   and the mode switch of a template node are hypotheses about the node at hand, so that [Phi] need
   hold neither for arbitrary positions nor of every template node, and [fail e] is asked only for
   the texts the walker itself raises ([walker_fail_sites]).
   The other forms that speak of particular nodes are this one read through a particular [Phi]: the unary
   node-indexed form below ([phi_walk_body_sub]; Proofs/InterpSubE.v with the restricted [fail]), the
   node-guarded forms (Proofs/InterpGuard.v, Proofs/InterpRel.v), and Proofs/WalkRel.v for relations that
   hold of every step leaving call depth and position alone.  Properties that depend on the node
   being walked (its positions lie inside the template's source; its tree_height is below the fuel;
   its calls go to templates of lower rank) use it directly and close by induction on the fuel. *)
From Soy Require Import Model.Bytes Model.Num Model.Values Model.Outcome Model.Ast
  Model.Escape Model.Directives Model.Print Generated.Tables Model.Interp Proofs.InterpLogic.
Require Import Lia.
Open Scope N_scope.

Definition opt_list {A} (o : option A) : list A := match o with Some x => [x] | None => [] end.
Definition acc_subs (a : node) : list node := match a with NAccExpr _ _ e => [e] | _ => [] end.
Definition dir_subs (d : node) : list node := match d with NDirective _ _ args => args | _ => [] end.
Definition cond_subs (c : node) : list node :=
  match c with NIfCond _ c body => opt_list c ++ [body] | _ => [] end.
Definition case_subs (c : node) : list node :=
  match c with NSwitchCase _ vs body => vs ++ [body] | _ => [] end.
Definition param_subs (p : node) : list node :=
  match p with NParamValue _ _ v => [v] | NParamContent _ _ c => [c] | _ => [] end.
(* walkPlural re-enters the message walker on the chosen case: the model builds a message node at the
   message's own position for it *)
Definition plural_case_subs (mp : N) (c : node) : list node :=
  match c with NMsgPluralCase _ _ cb => [NMsg mp 0 [] [] cb] | _ => [] end.
Definition msg_subs (mp : N) (x : node) : list node :=
  match x with
  | NRawText p t => [NRawText p t]
  | NMsgPlaceholder _ _ ph => [ph]
  | NMsgPlural _ _ pv cases dflt => pv :: NMsg mp 0 [] [] dflt :: flat_map (plural_case_subs mp) cases
  | _ => []
  end.

Definition subnodes (n : node) : list node :=
  match n with
  | NFunc _ _ args => args
  | NListLit _ items => items
  | NMapLit _ items => map snd items
  | NDataRef _ _ acc => flat_map acc_subs acc
  | NNot _ a | NNeg _ a => [a]
  | NBin _ _ a1 a2 => [a1; a2]
  | NTern _ a1 a2 a3 => [a1; a2; a3]
  | NList _ ns => ns
  | NPrint _ arg dirs => arg :: flat_map dir_subs dirs
  | NCss _ e _ => opt_list e
  | NLog _ body => [body]
  | NIf _ conds => flat_map cond_subs conds
  | NFor _ _ lst body ie => lst :: body :: opt_list ie
  | NSwitch _ v cases => v :: flat_map case_subs cases
  | NCall _ _ _ dat params => opt_list dat ++ flat_map param_subs params
  | NLetValue _ _ e => [e]
  | NLetContent _ _ b => [b]
  | NTemplate _ _ body _ _ => [body]
  | NMsg mp _ _ _ body => flat_map (msg_subs mp) body
  | _ => []
  end.

Definition callee_of (cf : cfg) (n : node) : option template :=
  match n with
  | NCall _ name _ _ _ => find_template (r_templates (c_reg cf)) name
  | _ => None
  end.

Lemma in_flat_map_hd {A B} (f : A -> list B) a r x : In x (f a) -> In x (flat_map f (a :: r)).
Proof. intros H. cbn [flat_map]. apply in_or_app. left. exact H. Qed.
Lemma in_flat_map_tl {A B} (f : A -> list B) a r x : In x (flat_map f r) -> In x (flat_map f (a :: r)).
Proof. intros H. cbn [flat_map]. apply in_or_app. right. exact H. Qed.

(* every text passed to [fail] by Model/Interp.v *)
Definition walker_fail_sites : list bstr :=
  [ Interp.e_write; Interp.e_undefined; Interp.e_notnumber; Interp.e_type; Interp.e_notlist; Interp.e_notmap;
    Interp.e_notemplate; Interp.e_noij; Interp.e_nullref; Interp.e_index; Interp.e_key; Interp.e_noncollection;
    Interp.e_unknown; Interp.e_func; Interp.e_arity; Interp.e_impossible; Interp.e_divzero; Interp.e_range;
    Interp.e_plural; Interp.e_placeholder; Print.e_nodirective; Print.e_arity; Print.e_nilapply ].

(* the read of the caller's scope in [call_data], and what a print does once the mode is read *)
Definition call_data_in (w : node -> M value) (alldata : bool) (dat : option node) (c : scope) : M scope :=
  if alldata then match sc_alldata c with Some s => ret (sc_push s) | None => fail e_impossible end
  else match dat with
       | Some e => dv <-- eval w e ;;; match dv with VMap id m => ret (sc_push (new_scope id m)) | _ => fail e_notmap end
       | None => ret [fresh_frame]
       end.
Definition print_in (ds : list (bstr * list darg)) (s : bstr) (md : N) : M value :=
  ws <-- lift (print_writes md ds s) ;;; _ <-- write_all ws ;;; ret VUndef.

(* a scope bracket around two steps is the bracket around their sequence *)
Lemma scoped_assoc (a m : M unit) st :
  (_ <-- m_push ;;; _ <-- a ;;; _ <-- m ;;; _ <-- m_pop ;;; ret VUndef) st =
  (_ <-- m_push ;;; _ <-- (_ <-- a ;;; m) ;;; _ <-- m_pop ;;; ret VUndef) st.
Proof. apply mbind_ext. intros [] s. symmetry. apply mbind_assoc. Qed.

(* for a relation closed under pointwise equality, [mbind] and the scope bracket *)
Lemma scoped2_of_scoped (Phi : forall A : Type, M A -> M A -> Prop) :
  (forall A (m1 m1' m2 m2' : M A), (forall st, m1 st = m1' st) -> (forall st, m2 st = m2' st) -> Phi A m1 m2 -> Phi A m1' m2') ->
  (forall A B (m1 m2 : M A) (f1 f2 : A -> M B), Phi A m1 m2 -> (forall x, Phi B (f1 x) (f2 x)) -> Phi B (mbind m1 f1) (mbind m2 f2)) ->
  (forall m1 m2 : M unit, Phi unit m1 m2 ->
     Phi value (_ <-- m_push ;;; _ <-- m1 ;;; _ <-- m_pop ;;; ret VUndef) (_ <-- m_push ;;; _ <-- m2 ;;; _ <-- m_pop ;;; ret VUndef)) ->
  forall a1 a2 m1 m2 : M unit, Phi unit a1 a2 -> Phi unit m1 m2 ->
    Phi value (_ <-- m_push ;;; _ <-- a1 ;;; _ <-- m1 ;;; _ <-- m_pop ;;; ret VUndef)
              (_ <-- m_push ;;; _ <-- a2 ;;; _ <-- m2 ;;; _ <-- m_pop ;;; ret VUndef).
Proof.
  intros Hext Hbind Hsc a1 a2 m1 m2 Ha Hm.
  eapply Hext; [intro; symmetry; apply scoped_assoc | intro; symmetry; apply scoped_assoc |].
  apply Hsc, Hbind; [exact Ha | intros _; exact Hm].
Qed.

(* the pure sites, without the fuel case (which concerns [walk], not [walk_body]) *)
Section Sites.
Variable pure_ok : forall A : Type, outcome A -> Prop.
Arguments pure_ok {A} _.
Record pure_sites_sub : Prop := {
  pss_arith : forall op x y, pure_ok (arith op x y);
  pss_compare : forall op x y, pure_ok (compare_op op x y);
  pss_string : forall v, pure_ok (value_string v);
  pss_print : forall m ds s, pure_ok (print_writes m ds s);
  pss_func : forall name ar vs, func_arities name = Some ar -> pure_ok (apply_func name vs);
}.
End Sites.

Section Unfolding.
Variable cf : cfg.
Variable Phi : forall A : Type, M A -> M A -> Prop.
Arguments Phi {A} _ _.
Variable pure_ok : forall A : Type, outcome A -> Prop.
Arguments pure_ok {A} _.

Record body_logic : Prop := {
  bl_ret : forall A (x : A), Phi (ret x) (ret x);
  bl_fail : forall A e, existsb (bstr_eqb e) walker_fail_sites = true -> Phi (@fail A e) (@fail A e);
  bl_lift : forall A (o : outcome A), pure_ok o -> Phi (lift o) (lift o);
  bl_bind : forall A B (m1 m2 : M A) (f1 f2 : A -> M B), Phi m1 m2 -> (forall x, Phi (f1 x) (f2 x)) -> Phi (mbind m1 f1) (mbind m2 f2);
  bl_write : forall w, Phi (write w) (write w);
  bl_set : forall k v, Phi (m_set k v) (m_set k v);
  bl_lookup : forall k, Phi (m_lookup k) (m_lookup k);
  bl_fresh_list : forall l, Phi (fresh_list l) (fresh_list l);
  bl_fresh_list_or_nil : forall l, Phi (fresh_list_or_nil l) (fresh_list_or_nil l);
  bl_fresh_map : forall m, Phi (fresh_map m) (fresh_map m);
  bl_read_mode : forall B (f1 f2 : N -> M B), (forall x, Phi (f1 x) (f2 x)) -> Phi (st <-- get ;;; f1 (mode st)) (st <-- get ;;; f2 (mode st));
  bl_read_ctx : forall B (f1 f2 : scope -> M B), (forall x, Phi (f1 x) (f2 x)) -> Phi (st <-- get ;;; f1 (ctx st)) (st <-- get ;;; f2 (ctx st));
  bl_scoped : forall (m1 m2 : M unit), Phi m1 m2 ->
      Phi (_ <-- m_push ;;; _ <-- m1 ;;; _ <-- m_pop ;;; ret VUndef) (_ <-- m_push ;;; _ <-- m2 ;;; _ <-- m_pop ;;; ret VUndef);
  (* the bracket of a {foreach}: the first assignment and the loop inside one scope *)
  bl_scoped2 : forall (a1 a2 m1 m2 : M unit), Phi a1 a2 -> Phi m1 m2 ->
      Phi (_ <-- m_push ;;; _ <-- a1 ;;; _ <-- m1 ;;; _ <-- m_pop ;;; ret VUndef)
          (_ <-- m_push ;;; _ <-- a2 ;;; _ <-- m2 ;;; _ <-- m_pop ;;; ret VUndef);
  bl_eval : forall (w1 w2 : node -> M value) e, Phi (w1 e) (w2 e) -> Phi (eval w1 e) (eval w2 e);
  bl_block : forall (w1 w2 : node -> M value) body, Phi (w1 body) (w2 body) -> Phi (render_block w1 body) (render_block w2 body);
}.

Hypothesis L : body_logic.
Hypothesis PS : pure_sites_sub (@pure_ok).

Ltac phi_bind := apply (bl_bind L); [ | intro ].
Ltac phi_leaf :=
  first [ apply (bl_ret L) | (apply (bl_fail L); reflexivity) | apply (bl_write L) | apply (bl_set L)
        | apply (bl_lookup L) | apply (bl_fresh_list L) | apply (bl_fresh_list_or_nil L) | apply (bl_fresh_map L) ].

Lemma bphi_write_all ws : Phi (write_all ws) (write_all ws).
Proof.
  induction ws as [|x r IH]; cbn [write_all]; [phi_leaf|].
  phi_bind; [phi_leaf | exact IH].
Qed.

Section Body.
Variables w1 w2 : node -> M value.
Local Notation Q := (fun c : node => Phi (w1 c) (w2 c)).

Lemma bphi_eval e : Q e -> Phi (eval w1 e) (eval w2 e).
Proof. apply (bl_eval L). Qed.

Lemma bphi_evaldef e : Q e -> Phi (evaldef w1 e) (evaldef w2 e).
Proof. intros H. unfold evaldef. phi_bind; [apply bphi_eval, H|]. destruct x; phi_leaf. Qed.

Lemma bphi_eval_list es : Forall Q es -> Phi (eval_list w1 es) (eval_list w2 es).
Proof.
  induction 1 as [|e r He _ IH]; cbn [eval_list]; [phi_leaf|].
  phi_bind; [apply bphi_eval, He|]. phi_bind; [exact IH | phi_leaf].
Qed.

Lemma bphi_walk_list ns : Forall Q ns -> Phi (walk_list w1 ns) (walk_list w2 ns).
Proof.
  induction 1 as [|x r Hx _ IH]; cbn [walk_list]; [phi_leaf|].
  phi_bind; [exact Hx | exact IH].
Qed.

Lemma bphi_render_block body : Q body -> Phi (render_block w1 body) (render_block w2 body).
Proof. apply (bl_block L). Qed.

Lemma bphi_maplit_items l : Forall Q (map snd l) -> Phi (maplit_items w1 l) (maplit_items w2 l).
Proof.
  induction l as [|[k e] r IH]; cbn [map snd maplit_items]; intros H; [phi_leaf|].
  phi_bind; [apply bphi_eval, (Forall_inv H)|]. phi_bind; [exact (IH (Forall_inv_tail H)) | phi_leaf].
Qed.

Lemma bphi_loop_func name args : Phi (loop_func name args) (loop_func name args).
Proof.
  unfold loop_func. destruct args as [|a r]; [phi_leaf|].
  destruct a; try phi_leaf.
  phi_bind; [phi_leaf|].
  destruct (Interp.fn_is name n_index); [phi_leaf|].
  destruct x; try phi_leaf.
  destruct (Interp.fn_is name n_isFirst); [phi_leaf|].
  phi_bind; [phi_leaf|]. destruct x; phi_leaf.
Qed.

Lemma bphi_call_func name args : Forall Q args -> Phi (call_func w1 name args) (call_func w2 name args).
Proof.
  intros H. unfold call_func. destruct (func_arities name) as [ar|] eqn:Har; [|phi_leaf].
  destruct (negb _); [phi_leaf|].
  phi_bind; [apply bphi_eval_list, H|].
  phi_bind; [apply (bl_lift L); eapply (pss_func _ PS); exact Har|].
  destruct x0; phi_leaf.
Qed.

Lemma bphi_dataref_access acc :
  Forall (fun a => Forall Q (acc_subs a)) acc -> forall ref, Phi (dataref_access w1 acc ref) (dataref_access w2 acc ref).
Proof.
  induction 1 as [|a rest Ha _ IH]; intros ref; cbn [dataref_access]; [phi_leaf|].
  phi_bind.
  - destruct a; try phi_leaf.
    phi_bind; [apply bphi_eval, (Forall_inv Ha)|].
    destruct x; try phi_leaf;
      (phi_bind; [apply (bl_lift L), (pss_string _ PS) | phi_leaf]).
  - destruct x as [oi k].
    destruct ref; try phi_leaf.
    + destruct (is_nullsafe a); phi_leaf.
    + destruct (is_nullsafe a); phi_leaf.
    + destruct oi as [i|]; [apply IH | phi_leaf].
    + destruct oi as [i|]; [phi_leaf | apply IH].
Qed.

Lemma bphi_print_dirs l :
  Forall (fun d => Forall Q (dir_subs d)) l -> forall v, Phi (print_dirs cf w1 l v) (print_dirs cf w2 l v).
Proof.
  induction 1 as [|d r Hd _ IH]; intros v; cbn [print_dirs]; [phi_leaf|].
  destruct d; try phi_leaf.
  destruct (lookup_directive name) as [[arglens ?]|]; [|phi_leaf].
  destruct (negb _); [phi_leaf|].
  phi_bind; [apply bphi_eval_list, Hd|].
  phi_bind; [apply (bl_lift L), (pss_string _ PS)|].
  phi_bind; [apply (bl_lift L), (pss_print _ PS)|].
  phi_bind; [apply IH | phi_leaf].
Qed.

Lemma bphi_if_conds cs : Forall (fun c => Forall Q (cond_subs c)) cs -> Phi (if_conds w1 cs) (if_conds w2 cs).
Proof.
  induction 1 as [|c0 r Hc _ IH]; cbn [if_conds]; [phi_leaf|].
  destruct c0; try phi_leaf.
  destruct cond as [c|]; cbn [cond_subs opt_list app] in Hc.
  - phi_bind; [apply bphi_eval, (Forall_inv Hc)|].
    destruct (truthy x); [|exact IH]. phi_bind; [exact (Forall_inv (Forall_inv_tail Hc)) | phi_leaf].
  - phi_bind; [exact (Forall_inv Hc) | phi_leaf].
Qed.

Lemma bphi_for_items var body items : Q body -> forall i, Phi (for_items w1 var body i items) (for_items w2 var body i items).
Proof.
  intros Hb. induction items as [|x r IH]; intros i; cbn [for_items]; [phi_leaf|].
  phi_bind; [phi_leaf|]. phi_bind; [phi_leaf|]. phi_bind; [exact Hb | apply IH].
Qed.

Lemma bphi_case_hit sv vs : Forall Q vs -> Phi (case_hit w1 sv vs) (case_hit w2 sv vs).
Proof.
  induction 1 as [|x r Hx _ IH]; cbn [case_hit]; [phi_leaf|].
  phi_bind; [apply bphi_eval, Hx|]. destruct (equals sv x0); [phi_leaf | exact IH].
Qed.

Lemma bphi_switch_cases sv cs :
  Forall (fun c => Forall Q (case_subs c)) cs -> Phi (switch_cases w1 sv cs) (switch_cases w2 sv cs).
Proof.
  induction 1 as [|c r Hc _ IH]; cbn [switch_cases]; [phi_leaf|].
  destruct c; try phi_leaf. apply Forall_app in Hc as [Hv Hb].
  phi_bind; [apply bphi_case_hit, Hv|].
  destruct (x || _); [|exact IH]. phi_bind; [exact (Forall_inv Hb) | phi_leaf].
Qed.

Lemma bphi_call_params ps :
  Forall (fun p => Forall Q (param_subs p)) ps -> forall cd, Phi (call_params w1 ps cd) (call_params w2 ps cd).
Proof.
  induction 1 as [|p r Hp _ IH]; intros cd; cbn [call_params]; [phi_leaf|].
  destruct p; try phi_leaf.
  - phi_bind; [apply bphi_eval, (Forall_inv Hp) | apply IH].
  - phi_bind; [apply bphi_render_block, (Forall_inv Hp) | apply IH].
Qed.

Lemma bphi_call_data alldata dat : Forall Q (opt_list dat) -> Phi (call_data w1 alldata dat) (call_data w2 alldata dat).
Proof.
  intros H. apply (bl_read_ctx L _ (call_data_in w1 alldata dat) (call_data_in w2 alldata dat)).
  intros c. unfold call_data_in. destruct alldata.
  - destruct (sc_alldata c); phi_leaf.
  - destruct dat as [e|]; [|phi_leaf].
    phi_bind; [apply bphi_eval, (Forall_inv H)|]. destruct x; phi_leaf.
Qed.

Lemma bphi_plural_pick mp i dflt cs :
  Q (NMsg mp 0 [] [] dflt) -> Forall (fun c => Forall Q (plural_case_subs mp c)) cs ->
  Phi (plural_pick w1 mp i dflt cs) (plural_pick w2 mp i dflt cs).
Proof.
  intros Hd. induction 1 as [|c r Hc _ IH]; cbn [plural_pick].
  - phi_bind; [exact Hd | phi_leaf].
  - destruct c; try phi_leaf.
    destruct (i =? v)%Z; [|exact IH]. phi_bind; [exact (Forall_inv Hc) | phi_leaf].
Qed.

Lemma bphi_msg_body mp ns : Forall (fun x => Forall Q (msg_subs mp x)) ns -> Phi (msg_body w1 mp ns) (msg_body w2 mp ns).
Proof.
  induction 1 as [|x r Hx _ IH]; cbn [msg_body]; [phi_leaf|].
  destruct x; try exact IH; cbn [msg_subs] in Hx.
  - phi_bind; [exact (Forall_inv Hx) | exact IH].
  - phi_bind; [exact (Forall_inv Hx) | exact IH].
  - phi_bind; [apply bphi_eval, (Forall_inv Hx)|]. destruct x0; try phi_leaf.
    phi_bind; [|exact IH]. apply Forall_inv_tail in Hx.
    apply bphi_plural_pick; [exact (Forall_inv Hx) | apply Forall_flat_map, (Forall_inv_tail Hx)].
Qed.

Lemma bphi_walk_node n :
  Phi (modify (fun st => set_cur st (pos_of n))) (modify (fun st => set_cur st (pos_of n))) ->
  (forall p name body ae priv, n = NTemplate p name body ae priv ->
     Phi (modify (fun st => set_mode st (template_mode (mode st) ae))) (modify (fun st => set_mode st (template_mode (mode st) ae)))) ->
  Forall Q (subnodes n) ->
  (forall callee cd, callee_of cf n = Some callee -> Phi (call_enter w1 callee cd) (call_enter w2 callee cd)) ->
  Phi (walk_node cf w1 n) (walk_node cf w2 n).
Proof.
  intros Hcur Hmode H Hcall.
  destruct n; cbn [walk_node]; try phi_leaf; cbn [subnodes] in H.
  - (* NFunc *) destruct (_ || _); [apply bphi_loop_func | apply bphi_call_func, H].
  - (* NListLit *) phi_bind; [apply bphi_eval_list, H | phi_leaf].
  - (* NMapLit *) phi_bind; [apply bphi_maplit_items, H | phi_leaf].
  - (* NDataRef *)
    phi_bind; [|apply bphi_dataref_access, Forall_flat_map, H].
    destruct (bstr_eqb key s_ij); [|phi_leaf]. destruct (c_ij cf); phi_leaf.
  - (* NNot *) phi_bind; [apply bphi_eval, (Forall_inv H) | phi_leaf].
  - (* NNeg *) phi_bind; [apply bphi_evaldef, (Forall_inv H)|]. destruct x; phi_leaf.
  - (* NBin *)
    pose proof (Forall_inv H) as H1. pose proof (Forall_inv (Forall_inv_tail H)) as H2.
    destruct op.
    1-5: (phi_bind; [apply bphi_evaldef, H1|]; phi_bind; [apply bphi_evaldef, H2|]; apply (bl_lift L), (pss_arith _ PS)).
    1-2: (phi_bind; [apply bphi_eval, H1|]; phi_bind; [apply bphi_eval, H2|]; phi_leaf).
    1-4: (phi_bind; [apply bphi_evaldef, H1|]; phi_bind; [apply bphi_evaldef, H2|]; apply (bl_lift L), (pss_compare _ PS)).
    + phi_bind; [apply bphi_eval, H1|]. destruct (truthy x); [phi_leaf|].
      phi_bind; [apply bphi_eval, H2 | phi_leaf].
    + phi_bind; [apply bphi_eval, H1|]. destruct (truthy x); [|phi_leaf].
      phi_bind; [apply bphi_eval, H2 | phi_leaf].
    + phi_bind; [apply bphi_eval, H1|]. destruct (is_nullish x); [apply bphi_eval, H2 | phi_leaf].
  - (* NTern *)
    phi_bind; [apply bphi_eval, (Forall_inv H)|]. apply Forall_inv_tail in H.
    destruct (truthy x); apply bphi_eval; [exact (Forall_inv H) | exact (Forall_inv (Forall_inv_tail H))].
  - (* NList *) apply (bl_scoped L), bphi_walk_list, H.
  - (* NRawText *) phi_bind; phi_leaf.
  - (* NPrint *)
    phi_bind; [exact (Forall_inv H)|].
    assert (Hrest : Phi (ds <-- print_dirs cf w1 dirs x ;;; s <-- lift (value_string x) ;;; st <-- get ;;; print_in ds s (mode st))
                        (ds <-- print_dirs cf w2 dirs x ;;; s <-- lift (value_string x) ;;; st <-- get ;;; print_in ds s (mode st))).
    { phi_bind; [apply bphi_print_dirs, Forall_flat_map, (Forall_inv_tail H)|].
      phi_bind; [apply (bl_lift L), (pss_string _ PS)|].
      apply (bl_read_mode L _ (print_in x0 x1) (print_in x0 x1)).
      intros md. unfold print_in. phi_bind; [apply (bl_lift L), (pss_print _ PS)|].
      phi_bind; [apply bphi_write_all | phi_leaf]. }
    destruct x; try exact Hrest. phi_leaf.
  - (* NCss *)
    phi_bind; [|phi_bind; phi_leaf].
    destruct expr as [e|]; [|phi_leaf].
    phi_bind; [apply bphi_eval, (Forall_inv H)|].
    phi_bind; [apply (bl_lift L), (pss_string _ PS) | phi_leaf].
  - (* NLog *) phi_bind; [apply bphi_render_block, (Forall_inv H) | phi_leaf].
  - (* NIf *) apply bphi_if_conds, Forall_flat_map, H.
  - (* NFor *)
    phi_bind; [apply bphi_eval, (Forall_inv H)|]. apply Forall_inv_tail in H.
    destruct x; try phi_leaf.
    destruct l as [|y l'].
    + destruct ifempty as [ie|]; [|phi_leaf].
      phi_bind; [exact (Forall_inv (Forall_inv_tail H)) | phi_leaf].
    + apply (bl_scoped2 L); [phi_leaf | apply bphi_for_items, (Forall_inv H)].
  - (* NSwitch *)
    phi_bind; [apply bphi_eval, (Forall_inv H) | apply bphi_switch_cases, Forall_flat_map, (Forall_inv_tail H)].
  - (* NCall *)
    cbn [callee_of] in Hcall. apply Forall_app in H as [Hd Hp].
    destruct (find_template _ name) as [callee|]; [|phi_leaf].
    phi_bind; [apply bphi_call_data, Hd|].
    phi_bind; [apply bphi_call_params, Forall_flat_map, Hp|].
    phi_bind; [exact Hcur | apply Hcall; reflexivity].
  - (* NLetValue *) phi_bind; [apply bphi_eval, (Forall_inv H)|]. phi_bind; phi_leaf.
  - (* NLetContent *) phi_bind; [apply bphi_render_block, (Forall_inv H)|]. phi_bind; phi_leaf.
  - (* NMsg *) phi_bind; [apply bphi_msg_body, Forall_flat_map, H | phi_leaf].
  - (* NMsgHtmlTag *) phi_bind; phi_leaf.
  - (* NTemplate *) phi_bind; [eapply Hmode; reflexivity|]. phi_bind; [exact (Forall_inv H) | phi_leaf].
Qed.

Theorem bphi_walk_body n :
  Phi (modify (fun st => set_cur st (pos_of n))) (modify (fun st => set_cur st (pos_of n))) ->
  (forall p name body ae priv, n = NTemplate p name body ae priv ->
     Phi (modify (fun st => set_mode st (template_mode (mode st) ae))) (modify (fun st => set_mode st (template_mode (mode st) ae)))) ->
  Forall Q (subnodes n) ->
  (forall callee cd, callee_of cf n = Some callee -> Phi (call_enter w1 callee cd) (call_enter w2 callee cd)) ->
  Phi (walk_body cf w1 n) (walk_body cf w2 n).
Proof.
  intros Hcur Hmode H Hcall. unfold walk_body. phi_bind; [exact Hcur | apply bphi_walk_node; assumption].
Qed.
End Body.
End Unfolding.

Section Sub.
Variable cf : cfg.
Variable Phi : forall A : Type, M A -> Prop.
Arguments Phi {A} _.
Variable pure_ok : forall A : Type, outcome A -> Prop.
Arguments pure_ok {A} _.

(* [walker_logic] without [wl_set_cur] *)
Record walker_logic_sub : Prop := {
  ws_ext : forall A (m m' : M A), (forall st, m st = m' st) -> Phi m -> Phi m';
  ws_ret : forall A (x : A), Phi (ret x);
  ws_fail : forall A e, Phi (@fail A e);
  ws_lift : forall A (o : outcome A), pure_ok o -> Phi (lift o);
  ws_bind : forall A B (m : M A) (f : A -> M B), Phi m -> (forall x, Phi (f x)) -> Phi (mbind m f);
  ws_template_mode : forall ae, Phi (modify (fun st => set_mode st (template_mode (mode st) ae)));
  ws_write : forall w, Phi (write w);
  ws_set : forall k v, Phi (m_set k v);
  ws_lookup : forall k, Phi (m_lookup k);
  ws_fresh_list : forall l, Phi (fresh_list l);
  ws_fresh_list_or_nil : forall l, Phi (fresh_list_or_nil l);
  ws_fresh_map : forall m, Phi (fresh_map m);
  ws_read_mode : forall B (f : N -> M B), (forall x, Phi (f x)) -> Phi (st <-- get ;;; f (mode st));
  ws_read_ctx : forall B (f : scope -> M B), (forall x, Phi (f x)) -> Phi (st <-- get ;;; f (ctx st));
  ws_scoped : forall (m : M unit), Phi m -> Phi (_ <-- m_push ;;; _ <-- m ;;; _ <-- m_pop ;;; ret VUndef);
  ws_eval : forall (w : node -> M value) e, Phi (w e) -> Phi (eval w e);
  ws_block : forall (w : node -> M value) body, Phi (w body) -> Phi (render_block w body);
}.

Hypothesis L : walker_logic_sub.
Hypothesis PS : pure_sites_sub (@pure_ok).

Lemma sub_body_logic : body_logic (fun A _ m => Phi m) (@pure_ok).
Proof. destruct L. constructor; eauto. apply (scoped2_of_scoped (fun A _ m => Phi m)); eauto. Qed.

Lemma sphi_write_all ws : Phi (write_all ws).
Proof. exact (bphi_write_all _ _ sub_body_logic ws). Qed.

Section Body.
Variable w : node -> M value.

Lemma sphi_eval_list es : (forall x, In x es -> Phi (w x)) -> Phi (eval_list w es).
Proof. intros H. apply (bphi_eval_list _ _ sub_body_logic w w), Forall_forall, H. Qed.

Theorem phi_walk_body_sub n :
  Phi (modify (fun st => set_cur st (pos_of n))) ->
  (forall n', In n' (subnodes n) -> Phi (w n')) ->
  (forall callee cd, callee_of cf n = Some callee -> Phi (call_enter w callee cd)) ->
  Phi (walk_body cf w n).
Proof.
  intros Hcur H Hcall.
  apply (bphi_walk_body cf _ _ sub_body_logic PS w w n Hcur); [|apply Forall_forall, H | exact Hcall].
  intros. apply (ws_template_mode L).
Qed.
End Body.
End Sub.

Lemma walker_logic_to_sub Phi pure_ok : walker_logic Phi pure_ok -> walker_logic_sub Phi pure_ok.
Proof.
  intros L. constructor.
  - apply (wl_ext _ _ L). - apply (wl_ret _ _ L). - apply (wl_fail _ _ L). - apply (wl_lift _ _ L).
  - apply (wl_bind _ _ L). - apply (wl_template_mode _ _ L). - apply (wl_write _ _ L).
  - apply (wl_set _ _ L). - apply (wl_lookup _ _ L). - apply (wl_fresh_list _ _ L).
  - apply (wl_fresh_list_or_nil _ _ L). - apply (wl_fresh_map _ _ L). - apply (wl_read_mode _ _ L).
  - apply (wl_read_ctx _ _ L). - apply (wl_scoped _ _ L). - apply (wl_eval _ _ L). - apply (wl_block _ _ L).
Qed.

Lemma pure_sites_to_sub pure_ok : pure_sites pure_ok -> pure_sites_sub pure_ok.
Proof. intros []. constructor; assumption. Qed.

(* A builder for sub logics of the form "every run relates its initial and
   final state by R, and ends normally or in an allowed fault".  Unlike
   [inv_conditions] of InterpLogic it asks nothing about [set_cur] at an
   arbitrary position: only that [eval]'s restoration of the register to its
   earlier value is harmless ([rc_restore]). *)

Section Rel.
Variable R : mstate -> mstate -> Prop.
Variable allowed : fault -> Prop.

Definition rel_spec {A} (m : M A) : Prop :=
  forall st r st', m st = (r, st') ->
    R st st' /\ match classify r with inl _ => True | inr e => allowed e end.
Definition rel_pure_ok {A} (o : outcome A) : Prop :=
  match classify o with inl _ => True | inr e => allowed e end.

Record rel_conditions : Prop := {
  rc_refl : forall st, R st st;
  rc_trans : forall a b c, R a b -> R b c -> R a c;
  rc_err : forall e, allowed (FErr e);
  rc_mode : forall st m, R st (set_mode st m);
  rc_ctx : forall st c, R st (set_ctx st c);
  rc_bufs : forall st bs, R st (set_bufs st bs);
  rc_out : forall st o cl bl, R st (set_out st o cl bl);
  rc_shared : forall st id, R st (note_shared st id);
  rc_unbound : forall st, R st (bump_unbound st);
  rc_bump_id : forall st, R st (bump_id st);
  rc_restore : forall st st2, R st st2 -> R st (set_cur st2 (cur st));
}.
Hypothesis C : rel_conditions.

Lemma rel_ret {A} (x : A) : rel_spec (ret x).
Proof. intros st r st' H. inversion H; subst. split; [apply (rc_refl C) | exact I]. Qed.
Lemma rel_fail {A} e : rel_spec (@fail A e).
Proof. intros st r st' H. inversion H; subst. split; [apply (rc_refl C) | apply (rc_err C)]. Qed.
Lemma rel_lift {A} (o : outcome A) : rel_pure_ok o -> rel_spec (lift o).
Proof. intros Ho st r st' H. inversion H; subst. split; [apply (rc_refl C) | exact Ho]. Qed.
Lemma rel_bind {A B} (m : M A) (f : A -> M B) : rel_spec m -> (forall x, rel_spec (f x)) -> rel_spec (mbind m f).
Proof.
  intros Hm Hf st r st2 Hb.
  destruct (mbind_inv _ _ _ _ _ Hb) as [(x & st1 & H1 & H2) | (e & H1 & ->)].
  - destruct (Hm _ _ _ H1) as [HR1 _]. destruct (Hf x _ _ _ H2) as [HR2 Ha].
    split; [eapply (rc_trans C); eauto | exact Ha].
  - destruct (Hm _ _ _ H1) as [HR1 Ha]. split; [exact HR1|].
    destruct e; cbn in Ha |- *; exact Ha.
Qed.
Lemma rel_modify f : (forall st, R st (f st)) -> rel_spec (modify f).
Proof. intros Hf st r st' H. inversion H; subst. split; [apply Hf | exact I]. Qed.

Lemma rel_write w : rel_spec (write w).
Proof.
  intros st r st' H. apply write_inv in H. inversion H; subst; cbn [classify].
  - split; [apply (rc_bufs C) | exact I].
  - split; [apply (rc_refl C) | apply (rc_err C)].
  - split; [apply (rc_out C) | apply (rc_err C)].
  - split; [apply (rc_out C) | exact I].
Qed.
Lemma rel_set k v : rel_spec (m_set k v).
Proof.
  intros st r st' H. rewrite m_set_eq in H. destruct (ctx st) as [|f rest].
  - inversion H; subst. split; [apply (rc_refl C) | apply (rc_err C)].
  - inversion H; subst. split; [|exact I]. destruct (f_origin f).
    + eapply (rc_trans C); [apply (rc_shared C) | apply (rc_ctx C)].
    + apply (rc_ctx C).
Qed.
Lemma rel_lookup k : rel_spec (m_lookup k).
Proof.
  intros st r st' H. rewrite m_lookup_eq in H. destruct (sc_lookup (ctx st) k); inversion H; subst.
  - split; [apply (rc_refl C) | exact I].
  - split; [apply (rc_unbound C) | exact I].
Qed.
Lemma rel_fresh_list l : rel_spec (fresh_list l).
Proof.
  intros st r st' H. rewrite fresh_list_eq in H. destruct l; inversion H; subst;
    (split; [first [apply (rc_refl C) | apply (rc_bump_id C)] | exact I]).
Qed.
Lemma rel_fresh_list_or_nil l : rel_spec (fresh_list_or_nil l).
Proof.
  intros st r st' H. rewrite fresh_list_or_nil_eq in H. destruct l; inversion H; subst;
    (split; [first [apply (rc_refl C) | apply (rc_bump_id C)] | exact I]).
Qed.
Lemma rel_fresh_map m : rel_spec (fresh_map m).
Proof. intros st r st' H. inversion H; subst. split; [apply (rc_bump_id C) | exact I]. Qed.

Lemma rel_eval (w : node -> M value) e : rel_spec (w e) -> rel_spec (eval w e).
Proof.
  intros Hw st r st' H. rewrite eval_eq in H.
  destruct (w e st) as [r1 st2] eqn:Hrun. cbn [fst snd] in H.
  destruct (Hw _ _ _ Hrun) as [HR Ha].
  destruct (classify r1) as [x|f]; inversion H; subst.
  - split; [apply (rc_restore C); exact HR | exact I].
  - split; [exact HR|]. rewrite classify_of_fault. exact Ha.
Qed.

Lemma rel_block (w : node -> M value) body : rel_spec (w body) -> rel_spec (render_block w body).
Proof.
  intros Hw st r st' H. rewrite render_block_eq in H.
  destruct (w body (buf_pushed st)) as [r1 st2] eqn:Hrun. cbn [fst snd] in H.
  destruct (Hw _ _ _ Hrun) as [HR Ha].
  assert (HR0 : R st st2) by (eapply (rc_trans C); [apply (rc_bufs C) | exact HR]).
  destruct (classify r1) as [x|f].
  - cbn zeta in H. destruct (bufs st2) as [|buf rest]; inversion H; subst; cbn [classify].
    + split; [exact HR0 | apply (rc_err C)].
    + split; [eapply (rc_trans C); [exact HR0 | apply (rc_bufs C)] | exact I].
  - inversion H; subst. split; [exact HR0|]. rewrite classify_of_fault. exact Ha.
Qed.

Theorem rel_logic_sub : walker_logic_sub (@rel_spec) (@rel_pure_ok).
Proof.
  constructor.
  - intros A m m' Heq Hm st r st' H. rewrite <- Heq in H. eapply Hm; eauto.
  - intros; apply rel_ret.
  - intros; apply rel_fail.
  - intros; apply rel_lift; assumption.
  - intros; apply rel_bind; assumption.
  - intros ae. apply rel_modify. intros st. apply (rc_mode C).
  - apply rel_write.
  - apply rel_set.
  - apply rel_lookup.
  - apply rel_fresh_list.
  - apply rel_fresh_list_or_nil.
  - apply rel_fresh_map.
  - intros B f Hf st r st' H. change ((st <-- get ;;; f (mode st)) st) with (f (mode st) st) in H. eapply Hf; eauto.
  - intros B f Hf st r st' H. change ((st <-- get ;;; f (ctx st)) st) with (f (ctx st) st) in H. eapply Hf; eauto.
  - intros m Hm. apply rel_bind; [apply rel_modify; intros st; apply (rc_ctx C)|]. intros _.
    apply rel_bind; [exact Hm|]. intros _.
    apply rel_bind; [apply rel_modify; intros st; apply (rc_ctx C)|]. intros _. apply rel_ret.
  - apply rel_eval.
  - apply rel_block.
Qed.
End Rel.
