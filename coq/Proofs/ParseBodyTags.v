(* C15, parser half for bodies with print commands among the tags: itemList over the items [c15_gshape c15_X0]
   (print-command items with all positions 0), at ONE budget g for every level: either some print command's
   beginTag runs out of budget (the whole run is then CFuel), or the list node read has the Spec's reading.  The
   totality of the entry point excludes the first alternative (Proofs/BodyTagsMain.v). *)
From Soy Require Import Model.Bytes Model.Ast Model.Token Model.ExprParser Model.Parser Generated.Tables Spec.Text Spec.TextTags
  Spec.ExprSyntax Spec.CmdSyntax Proofs.RawTextProofs Proofs.ExprParserRules Proofs.ExprParserProofs Proofs.LexBodyMixMain
  Proofs.ParseBodyText Proofs.ParseTemplate Proofs.PlaceholderTextProofs Proofs.CmdRoundtripBase Proofs.CmdRoundtripPrint
  Proofs.CmdParserFuel Proofs.CmdParserStripDefs Proofs.BodyTagsShape.
From Coq Require Import Lia.
Open Scope N_scope.

Lemma start_not_until until : forallb (fun t => negb (one_of t until)) expr_start_types = true ->
  forall t, mem t expr_start_types = true -> one_of t until = false.
Proof.
  intros Hu t H. rewrite forallb_forall in Hu. apply Bool.negb_true_iff, Hu.
  unfold mem in H. apply existsb_exists in H. destruct H as (x & Hin & E). apply N.eqb_eq in E. subst x. exact Hin.
Qed.

Lemma print_first_tok n : wf_print n ->
  exists k1 l1, tokens_of_print (strip_pos n) = k1 :: l1 /\ mem (t_typ k1) expr_start_types = true.
Proof.
  intros Hwf. pose proof (wf_print_strip n Hwf) as Hwf0. destruct n; cbn [wf_print] in Hwf; try contradiction.
  cbn [strip_pos] in *. destruct Hwf0 as [Hwa _].
  match goal with |- context [NPrint 0 ?a ?d] => destruct (show_starts_expression sty_min a Hwa [0%nat] (sty_min [0%nat])) as (x & lx & Ex & Hx) end.
  unfold tokens_of_print. cbn [show_print]. rewrite Ex. cbn [app]. eauto.
Qed.

Section Print.
Variable inlen : N.
Variable lexq : bstr -> list tok.
Variable unq : bstr -> option bstr.
Variable g : nat.
Notation PE g := (lift_expr inlen parse_expr g).
Notation IL g := (item_list inlen lexq unq parse_expr expr_fuel g).
Notation BT g := (begin_tag inlen lexq unq parse_expr expr_fuel (PE g) (IL g) g).

(* beginTag on the items of a print command (positions 0), at the budget g: out of budget, or the command *)
Lemma begin_tag_print_cases n rest sb : wf_print n -> stream (c_p sb) = tokens_of_print (strip_pos n) ++ rest -> inv (c_p sb) ->
  BT g sb = CFuel \/ exists s', BT g sb = COk (Some (strip_pos n)) s' /\ stream (c_p s') = rest /\ inv (c_p s').
Proof.
  intros Hwf Hs Hi. pose proof (wf_print_strip n Hwf) as Hwf0.
  assert (Hp0 : 0 = first_pos (tokens_of_print (strip_pos n))).
  { unfold tokens_of_print. rewrite show_print_strip. destruct (show_print sty_min [] n); reflexivity. }
  destruct (print_first_tok n Hwf) as (k & l1 & Ek & _).
  destruct n; cbn [wf_print] in Hwf; try contradiction. cbn [strip_pos] in *.
  pose proof (Tag_print (c_ns sb) (c_al sb) (c_inmsg sb) inlen lexq unq expr_fuel 0 _ _ rest k (l1 ++ rest) Hwf0 Hp0 ltac:(rewrite Ek; reflexivity)) as HT.
  rewrite Ek in Hs.
  destruct (HT sb (c_p sb) (c_scans sb) Hs Hi ltac:(repeat split)) as (p' & sc' & Hs' & Hi' & f0 & HF).
  rewrite set_ps_eta in HF.
  pose proof (begin_tag_le inlen lexq unq expr_fuel (PE g) (PE (max g f0)) (IL g) (IL (max g f0)) g (max g f0)
                (fun p0 s0 => lift_expr_le inlen g (max g f0) p0 s0 ltac:(lia))
                (fun u s0 => item_list_le inlen lexq unq expr_fuel g (max g f0) ltac:(lia) u s0) ltac:(lia) sb) as [Hc|Hc].
  - left. exact Hc.
  - right. exists (set_ps sb p' sc'). rewrite Hc, (HF (max g f0) (max g f0)) by lia. split; [reflexivity|]. split; assumption.
Qed.

End Print.

Definition tags_wf (rp : list (c15_tag * list bstr)) : Prop :=
  Forall (fun q => Forall no_nul (snd q) /\ match fst q with C15Print n _ => wf_print n | _ => True end) rp.

Section RunU.
Variable inlen : N.
Variable lexq : bstr -> list tok.
Variable unq : bstr -> option bstr.
Variable g : nat.
Variable until : list N.
Hypothesis Hut : one_of pit_Text until = false.
Hypothesis Hul : one_of pit_LeftDelim until = false.
Hypothesis Hus : forall t o, assoc t parser_special_chars = Some o -> one_of t until = false.
Hypothesis Hult : one_of pit_Literal until = false.
Hypothesis Hstart : forall t, mem t expr_start_types = true -> one_of t until = false.
Notation PE g := (lift_expr inlen parse_expr g).
Notation IL g := (item_list inlen lexq unq parse_expr expr_fuel g).
Notation LOOP := (item_list_loop inlen lexq unq parse_expr expr_fuel (PE g) (IL g) g).

(* a stretch and the print command behind it, at the budget g: out of budget in the command, or its node *)
Lemma print_seg_run pcs its n ld pre l acc pos s : pshape pcs its -> Forall no_nul pcs -> wf_print n -> t_typ ld = pit_LeftDelim ->
  Forall is_comment pre -> stream (c_p s) = pre ++ its ++ (ld :: tokens_of_print (strip_pos n)) ++ l -> inv (c_p s) ->
  (length (pre ++ its) + 2 <= g)%nat ->
  exists k nodes, (k <= length its)%nat /\ Forall is_raw nodes /\ concat (map raw_text_of nodes) = norm_pieces (flag pre) pcs /\
    ((forall f, LOOP (k + S f) until pos acc s = CFuel) \/
     exists pos1 s', stream (c_p s') = l /\ inv (c_p s') /\
       forall f, LOOP (k + S f) until pos acc s = LOOP f until (Some pos1) ((acc ++ nodes) ++ [strip_pos n]) s').
Proof.
  intros Hps Hnn Hwf Hld Hpre Hs Hi Hlf. destruct (print_first_tok n Hwf) as (k1 & l1 & Ek1 & Hk1).
  assert (Hs0 : stream (c_p s) = pre ++ its ++ ld :: k1 :: (l1 ++ l)) by (rewrite Hs, Ek1; reflexivity).
  destruct (stretch_nodes_u inlen lexq unq parse_expr expr_fuel (PE g) (IL g) g until Hut Hul Hus Hult pcs its Hps Hnn pre Hpre ld _ acc pos s
              ltac:(rewrite Hld; discriminate) ltac:(rewrite Hld; discriminate) Hs0 Hi Hlf)
    as (k & pre' & nodes & pos' & s1 & Hk & Hpre' & Hlen & Hraw & Hcat & Hs1 & Hi1 & Hrun).
  destruct (ld_iter_u inlen lexq unq parse_expr expr_fuel (PE g) (IL g) g until Hut Hul Hus Hult pre' ld k1 (l1 ++ l) pos' (acc ++ nodes) s1
              Hpre' Hld (Hstart _ Hk1) Hs1 Hi1 ltac:(lia)) as (pos1 & sb & Hsb & Hib & Hrun2).
  assert (Hsb' : stream (c_p sb) = tokens_of_print (strip_pos n) ++ l) by (rewrite Hsb, Ek1; reflexivity).
  exists k, nodes. split; [exact Hk|]. split; [exact Hraw|]. split; [exact Hcat|].
  destruct (begin_tag_print_cases inlen lexq unq g n l sb Hwf Hsb' Hib) as [Hb|(s2 & Hb & Hs2 & Hi2)].
  - left. intros f. rewrite Hrun, Hrun2, Hb. reflexivity.
  - right. exists pos1, s2. split; [exact Hs2|]. split; [exact Hi2|]. intros f. rewrite Hrun, Hrun2, Hb. reflexivity.
Qed.

End RunU.

Section Run.
Variable inlen : N.
Variable lexq : bstr -> list tok.
Variable unq : bstr -> option bstr.
Variable g : nat.
Notation PE g := (lift_expr inlen parse_expr g).
Notation IL g := (item_list inlen lexq unq parse_expr expr_fuel g).
Notation LOOP := (item_list_loop inlen lexq unq parse_expr expr_fuel (PE g) (IL g) g).

Lemma gshape_run : forall pcs rp items, c15_gshape c15_X0 pcs rp items -> Forall no_nul pcs -> tags_wf rp ->
  forall pre, Forall is_comment pre -> forall f acc pos s,
  stream (c_p s) = pre ++ items -> inv (c_p s) -> (length (pre ++ items) + 2 <= g)%nat -> (length items <= f)%nat ->
  LOOP f u_eof pos acc s = CFuel \/
  exists pos' nodes s', LOOP f u_eof pos acc s = COk (NList pos' (acc ++ nodes)) s' /\
     c15_view0 (map cps_strip nodes) = gs_out (flag pre) pcs rp.
Proof.
  intros pcs rp items Hsh. induction Hsh as [pcs its e Hps He|pcs its c o tg pcs' rest items' Hps Htg Hsh IH|pcs its n txt ld mid pcs' rest items' Hps Hld HX Hsh IH];
    intros Hnn Hnr pre Hpre f acc pos s Hs Hi Hlf Hf; rewrite !app_length in Hlf; rewrite !app_length in Hf.
  - right. assert (He' : t_typ e = pit_EOF) by exact He.
    destruct (stretch_nodes_u inlen lexq unq parse_expr expr_fuel (PE g) (IL g) g u_eof eq_refl eq_refl (special_not_until u_eof eq_refl) eq_refl
                pcs its Hps Hnn pre Hpre e [] acc pos s ltac:(rewrite He'; discriminate) ltac:(rewrite He'; discriminate) Hs Hi ltac:(rewrite app_length; lia))
      as (k & pre' & nodes & pos' & s' & Hk & Hpre' & Hlen & Hraw & Hcat & Hst & Hiv & Hrun).
    rewrite app_length in Hlen. cbn [length] in Hf, Hlf. replace f with (k + S (f - k - 1))%nat by lia. rewrite Hrun.
    destruct (eof_iter inlen lexq unq parse_expr expr_fuel (PE g) (IL g) g pre' e [] (f - k - 1) pos' (acc ++ nodes) s' Hpre' He' Hst Hiv ltac:(lia)) as (pos1 & s'' & Hrun2).
    exists pos1, nodes, s''. split; [exact Hrun2|].
    exact (gs_out_end _ _ _ Hraw Hcat).
  - inversion Hnr as [|? ? [Hnn' _] Hnr']; subst. cbn [snd] in Hnn'.
    destruct (text_seg_run inlen lexq unq parse_expr expr_fuel (PE g) (IL g) g u_eof eq_refl eq_refl (special_not_until u_eof eq_refl) eq_refl
                pcs its o tg pre items' acc pos s Hps Hnn Htg Hpre Hs Hi ltac:(rewrite app_length; lia))
      as (k & nodes & p & pos1 & s2 & Hk & Hraw & Hcat & Hs2 & Hi2 & Hrun).
    destruct (tagitems_head o tg Htg) as (ld & tg' & -> & _). cbn [length] in Hf, Hlf.
    replace f with (k + S (f - k - 1))%nat by lia. rewrite Hrun.
    destruct (IH Hnn' Hnr' [] ltac:(constructor) (f - k - 1)%nat ((acc ++ nodes) ++ [NRawText p o]) (Some pos1) s2 Hs2 Hi2 ltac:(cbn [app]; lia) ltac:(lia))
      as [Hfu|(pos2 & nodes2 & s3 & Hrun3 & Hv3)]; [left; exact Hfu|right].
    exists pos2, (nodes ++ NRawText p o :: nodes2), s3. split; [rewrite Hrun3, <- !app_assoc; reflexivity|].
    exact (gs_out_text _ _ _ _ _ _ _ _ _ Hraw Hcat Hv3).
  - inversion Hnr as [|? ? [Hnn' Hwfn] Hnr']; subst. cbn [snd fst] in Hnn', Hwfn. red in HX. subst mid.
    destruct (print_seg_run inlen lexq unq g u_eof eq_refl eq_refl (special_not_until u_eof eq_refl) eq_refl (start_not_until u_eof eq_refl)
                pcs its n ld pre items' acc pos s Hps Hnn Hwfn Hld Hpre Hs Hi ltac:(rewrite app_length; lia))
      as (k & nodes & Hk & Hraw & Hcat & Hcases).
    cbn [length] in Hf, Hlf. replace f with (k + S (f - k - 1))%nat by lia.
    destruct Hcases as [Hfu|(pos1 & s2 & Hs2 & Hi2 & Hrun)]; [left; apply Hfu|]. rewrite Hrun.
    destruct (IH Hnn' Hnr' [] ltac:(constructor) (f - k - 1)%nat ((acc ++ nodes) ++ [strip_pos n]) (Some pos1) s2 Hs2 Hi2 ltac:(cbn [app]; lia) ltac:(lia))
      as [Hfu2|(pos2 & nodes2 & s3 & Hrun3 & Hv3)]; [left; exact Hfu2|right].
    exists pos2, (nodes ++ strip_pos n :: nodes2), s3. split; [rewrite Hrun3, <- !app_assoc; reflexivity|].
    exact (gs_out_print _ _ _ _ _ _ _ _ Hwfn Hraw Hcat Hv3).
Qed.

End Run.
