(* C15, scanner half for bodies with print commands among the tags (Spec/TextTags.v): the items lex() sends for
   T0 tag1 T1 ... tagn Tn have the shape [c15_gshape c15_X1]: per stretch the items of its pieces and comments,
   per special-character command / literal block its tag items, per print command "{" and items with the types
   and texts of tokens_of_print, EOF last. *)
From Soy Require Import Model.Bytes Model.Utf8 Model.Num Model.Values Model.Outcome Model.Ast Model.Token Model.AstPrint Generated.Tables Model.Lexer
  Spec.Text Spec.TextBody Spec.TextMix Spec.TextTags Spec.ExprSyntax
  Proofs.LexerPrim Proofs.LexerStates Proofs.LexerProofs Proofs.LexTokens Proofs.LexExpr Proofs.LexPrint Proofs.LexPrintMain Proofs.LexPrintTop Proofs.LexPrintCmd
  Proofs.LexBodyText Proofs.LexBodyTop Proofs.LexBodySeg Proofs.LexBodyCmd Proofs.LexBodyLit Proofs.LexBodyMix Proofs.LexBodyMixMain
  Proofs.BodyTagsShape.
From Coq Require Import ZifyBool Lia.
Open Scope Z_scope.

Definition c15_lex_oks (r : list c15_tseg) : Prop :=
  Forall (fun sg : c15_tseg => match fst sg with C15Print n _ => lex_ok_print n | _ => True end) r.

Fixpoint c15_rest_pieces (r : list c15_tseg) (rp : list (c15_tag * list bstr)) : Prop :=
  match r, rp with
  | [], [] => True
  | (tg, T) :: r', (tg', pcs) :: rp' => tg' = tg /\ pieces MText false [] T = Some pcs /\ c15_rest_pieces r' rp'
  | _, _ => False
  end.

Lemma c15_tag_src_brace pr t : c15_tag_ok pr t -> (forall n txt, pr n = Some txt -> wf_print n -> exists t', txt = 123%N :: t') ->
  exists t', c15_tag_src t = 123%N :: t'.
Proof.
  intros Hok Hpr. destruct t as [[n o]|n txt]; cbn [c15_tag_src]; [eexists; reflexivity|].
  destruct Hok as [Hwf Hp]. exact (Hpr n txt Hp Hwf).
Qed.

Lemma print_node_brace n txt : print_node n = Some txt -> wf_print n -> exists t', txt = 123%N :: t'.
Proof.
  intros Hp Hwf. destruct n; cbn [wf_print] in Hwf; try contradiction. cbn [print_node] in Hp.
  destruct (print_node n); cbn [obind] in Hp; [|discriminate]. destruct (opt_all _); cbn [obind] in Hp; [|discriminate].
  injection Hp as <-. eexists. reflexivity.
Qed.

Lemma c15_rest_src_tag r : c15_rest_ok print_node r -> tag_or_end (c15_rest_src r).
Proof.
  destruct r as [|[t T] r']; [left; reflexivity|]. intros (Hok & _). right. cbn [c15_rest_src].
  destruct (c15_tag_src_brace print_node t Hok print_node_brace) as (t' & ->). eexists. reflexivity.
Qed.

Section Tags.
Variable uni_letter uni_digit : Z -> bool.
Hypothesis letter_ascii : forall c, (c < 128)%N -> uni_letter (Z.of_N c) = ((65 <=? c) && (c <=? 90) || (97 <=? c) && (c <=? 122))%N.
Hypothesis digit_ascii : forall c, (c < 128)%N -> uni_digit (Z.of_N c) = digit_b c.
Hypothesis letter_eof : uni_letter (-1) = false.
Hypothesis digit_eof : uni_digit (-1) = false.
Variable inp : bstr.
Notation steps := (steps uni_letter uni_digit inp 0).
Notation span := (span inp).
Notation ilen := (Z.of_nat (length inp)).

(* a print command, from lexLeftDelim at its "{" to the lexText behind its "}" *)
Lemma lex_print_tag l n txt rest : wf_print n -> lex_ok_print n -> print_node n = Some txt -> span l [] (txt ++ rest) ->
  exists k l' ld mid, steps k LLeftDelim l = Ok (LText, l') /\ span l' [] rest /\
    l_out l' = rev (ld :: mid) ++ l_out l /\ t_typ ld = itemLeftDelim /\ map tv mid = map tv (tokens_of_print n) /\
    t_val (l_last l') = [125%N] /\ l_dd l' = false.
Proof.
  intros Hwf Hlo Hp Hs. destruct n; cbn [wf_print] in Hwf; try contradiction.
  cbn [wf_print lex_ok_print] in Hwf, Hlo. destruct Hwf as [Hwa Hwd]. destruct Hlo as [Hloa Hlod].
  cbn [print_node] in Hp. destruct (print_node n) as [se|] eqn:Ea; cbn [obind] in Hp; [|discriminate].
  match type of Hp with context [opt_all (map print_node ?d)] => destruct (opt_all (map print_node d)) as [dl|] eqn:El end; cbn [obind] in Hp; [|discriminate].
  injection Hp as <-.
  destruct (print_tag_head n se Hwa Hloa Ea) as (c & r & -> & Hc & H1 & H2 & H3).
  assert (Hs' : span l [] (123%N :: c :: r ++ concat_b dl ++ 125%N :: rest)).
  { cbn [app] in Hs. rewrite <- !app_assoc in Hs. exact Hs. }
  destruct (delim_begin uni_letter uni_digit letter_ascii digit_ascii letter_eof digit_eof inp l c _ Hs' Hc H1 H2)
    as (l1 & p1 & Hst1 & Hs1 & Ho1 & Hla1 & Hdd1).
  assert (E : (c =? 92)%N = false) by lia. rewrite E in Hst1.
  match type of El with opt_all (map print_node ?d) = _ => 
    destruct (L_dirs uni_letter uni_digit letter_ascii digit_ascii letter_eof digit_eof inp d dl Hwd Hlod El) as (HLd & Hhd) end.
  assert (Hf1 : fexp (concat_b dl ++ 125%N :: rest)).
  { destruct Hhd as [->|(r1 & ->)]; cbn; lia. }
  assert (Hs1' : span l1 [] ((c :: r) ++ concat_b dl ++ 125%N :: rest)) by exact Hs1.
  destruct (lex_print uni_letter uni_digit letter_ascii digit_ascii letter_eof digit_eof inp 0 n Hwa Hloa (c :: r) Ea l1 _ Hs1'
              ltac:(unfold opnd, last_typ; rewrite Hla1; reflexivity) Hf1) as (k2 & l2 & Hst2 & Hs2 & Hse2 & Hq2).
  destruct (HLd l2 (125%N :: rest) Hs2 Hq2 ltac:(cbn; lia)) as (k3 & l3 & Hst3 & Hs3 & Hse3 & _).
  destruct (sends_out _ _ _ Hse2) as (its2 & Ho2 & Hm2 & Hd2). destruct (sends_out _ _ _ Hse3) as (its3 & Ho3 & Hm3 & Hd3).
  destruct (close_brace uni_letter uni_digit letter_eof digit_eof inp l3 rest Hs3 ltac:(congruence)) as (l4 & p4 & Hst4 & Hs4 & Ho4 & Hla4 & Hdd4).
  exists (2 + (k2 + (k3 + 2)))%nat, l4, {| t_typ := itemLeftDelim; t_pos := p1; t_val := [123%N] |},
         (its2 ++ its3 ++ [{| t_typ := itemRightDelim; t_pos := p4; t_val := [125%N] |}]).
  split.
  { rewrite (steps_app _ _ _ _ 2 _ _ _ _ _ Hst1), (steps_app _ _ _ _ k2 _ _ _ _ _ Hst2), (steps_app _ _ _ _ k3 _ _ _ _ _ Hst3). exact Hst4. }
  split; [exact Hs4|]. split.
  { rewrite Ho4, Ho3, Ho2, Ho1. cbn [rev]. rewrite !rev_app_distr. cbn [rev app]. rewrite <- !app_assoc. reflexivity. }
  split; [reflexivity|]. split.
  { rewrite print_toks, !map_app. unfold tv at 1 2. rewrite Hm2, Hm3. reflexivity. }
  split; [rewrite Hla4; reflexivity|exact Hdd4].
Qed.

Lemma fuel_ok_tg l w s : span l w s -> (length s < loop_fuel ilen l)%nat.
Proof using letter_eof digit_eof. exact (span_fuel inp l w s). Qed.

Lemma lex_tags_run : forall rest rp T pcs l, span l [] (T ++ c15_rest_src rest) -> l_dd l = false ->
  mix_stretch_ok (pwof 0 l) (match rest with [] => true | _ => false end) T -> pieces MText (pwof 0 l) [] T = Some pcs ->
  c15_rest_ok print_node rest -> c15_lex_oks rest -> c15_rest_pieces rest rp ->
  exists k l' items, steps k LText l = Ok (LDone, l') /\ l_out l' = rev items ++ l_out l /\ c15_gshape c15_X1 pcs rp items.
Proof.
  induction rest as [|[tg T'] r IH]; intros rp T pcs l Hs Hdd [Hpl Hop] Hpc Hrest Hlx Hrp.
  - destruct rp; [|contradiction]. cbn [c15_rest_src] in Hs.
    destruct (lex_stretch uni_letter uni_digit letter_ascii digit_ascii letter_eof digit_eof inp (length T) T (le_n _) l pcs [] Hs Hpl (or_introl eq_refl) Hpc ltac:(congruence))
      as (k & l' & its & st' & Hst & Hsh & _ & Hend).
    destruct Hend as [(_ & -> & e & He & Ho)|(A & _)]; [|congruence].
    exists k, l', (its ++ [e]). split; [exact Hst|]. split; [rewrite Ho, rev_app_distr; reflexivity|]. apply gs_end; assumption.
  - destruct rp as [|[tg' pcs'] rp']; [contradiction|]. cbn [c15_rest_pieces] in Hrp. destruct Hrp as (-> & Hpc' & Hrp').
    pose proof (c15_rest_src_tag _ Hrest) as Htag.
    cbn [c15_rest_ok] in Hrest. destruct Hrest as (Hcmd & Hok' & Hrest').
    inversion Hlx as [|? ? Hlx1 Hlx']; subst. cbn [fst] in Hlx1.
    destruct (lex_stretch uni_letter uni_digit letter_ascii digit_ascii letter_eof digit_eof inp (length T) T (le_n _) l pcs _ Hs Hpl Htag Hpc ltac:(intros _; apply Hop; reflexivity))
      as (k1 & l1 & its & st' & Hst1 & Hsh1 & Hdd1 & Hend).
    destruct Hend as [(A & _)|(_ & -> & Ho1 & Hs1)].
    { exfalso. cbn [c15_rest_src] in A. destruct (c15_tag_src_brace print_node tg Hcmd print_node_brace) as (t' & Et). rewrite Et in A. discriminate A. }
    cbn [c15_rest_src] in Hs1.
    destruct tg as [[n o]|n txt]; cbn [c15_tag_ok c15_tag_src] in Hcmd, Hs1.
    + rewrite <- !app_assoc in Hs1.
      destruct (lex_cmd_tag uni_letter uni_digit letter_ascii digit_ascii letter_eof digit_eof inp l1 n o _ Hcmd Hs1)
        as (k2 & l2 & tg & Hst2 & Hs2 & Ho2 & Htg & Hpw & Hdd2).
      destruct (IH rp' T' pcs' l2 Hs2 Hdd2 ltac:(rewrite Hpw; exact Hok') ltac:(rewrite Hpw; exact Hpc') Hrest' Hlx' Hrp') as (k3 & l3 & items & Hst3 & Ho3 & Hsh).
      exists (k1 + (k2 + k3))%nat, l3, (its ++ tg ++ items).
      split; [rewrite (steps_app _ _ _ _ k1 _ _ _ _ _ Hst1), (steps_app _ _ _ _ k2 _ _ _ _ _ Hst2); exact Hst3|].
      split; [rewrite Ho3, Ho2, Ho1, !rev_app_distr, <- !app_assoc; reflexivity|exact (gs_text _ _ _ _ _ _ _ _ _ Hsh1 Htg Hsh)].
    + destruct Hcmd as [Hwf Hp].
      destruct (lex_print_tag l1 n txt (T' ++ c15_rest_src r) Hwf Hlx1 Hp Hs1)
        as (k2 & l2 & ld & mid & Hst2 & Hs2 & Ho2 & Hld & Hm & Hv2 & Hdd2).
      assert (Hpw : pwof 0 l2 = false) by (unfold pwof; rewrite Hv2; reflexivity).
      destruct (IH rp' T' pcs' l2 Hs2 Hdd2 ltac:(rewrite Hpw; exact Hok') ltac:(rewrite Hpw; exact Hpc') Hrest' Hlx' Hrp') as (k3 & l3 & items & Hst3 & Ho3 & Hsh).
      exists (k1 + (k2 + k3))%nat, l3, (its ++ (ld :: mid) ++ items). split.
      { rewrite (steps_app _ _ _ _ k1 _ _ _ _ _ Hst1), (steps_app _ _ _ _ k2 _ _ _ _ _ Hst2). exact Hst3. }
      split.
      { rewrite Ho3, Ho2, Ho1, !rev_app_distr. rewrite <- !app_assoc. reflexivity. }
      eapply gs_print; [exact Hsh1|exact Hld|exact Hm|exact Hsh].
Qed.

End Tags.

(* lex(name, c15_body_src T0 rest) *)
Theorem lex_body_tags (uni_letter uni_digit : Z -> bool) :
  (forall c, (c < 128)%N -> uni_letter (Z.of_N c) = ((65 <=? c) && (c <=? 90) || (97 <=? c) && (c <=? 122))%N) ->
  (forall c, (c < 128)%N -> uni_digit (Z.of_N c) = digit_b c) ->
  uni_letter (-1) = false -> uni_digit (-1) = false ->
  forall T0 rest pcs rp, c15_body_ok print_node T0 rest -> c15_lex_oks rest -> pieces MText true [] T0 = Some pcs -> c15_rest_pieces rest rp ->
  exists items, lex_items uni_letter uni_digit (lex_budget (c15_body_src T0 rest)) false (c15_body_src T0 rest) = Ok items /\ c15_gshape c15_X1 pcs rp items.
Proof.
  intros Hla Hda Hle Hde T0 rest pcs rp [Hok Hrest] Hlx Hpc Hrp. set (txt := c15_body_src T0 rest).
  destruct (lex_tags_run uni_letter uni_digit Hla Hda Hle Hde txt rest rp T0 pcs lex_init (span_init txt) eq_refl Hok Hpc Hrest Hlx Hrp) as (k & l' & items & Hst & Ho & Hsh).
  exists items. split; [exact (lex_file_items_steps uni_letter uni_digit Hle Hde txt k l' items Hst Ho)|exact Hsh].
Qed.
