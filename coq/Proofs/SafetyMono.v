(* C06: the recursion budget is only an approximation index.
   [walk cf f] approximates [walk cf (f + k)]: on every node and state it either
   runs out of fuel or gives the SAME outcome and final state.  So an answer
   (result, error value) obtained with some budget is the answer with every
   larger budget, and [OutOfFuel] never stands for anything but "a deeper
   nesting of calls than the budget".  Proof: the relational walker principle
   of Proofs/InterpRel.v with the guard that holds of every node. *)
From Coq Require Import Lia.
From Soy Require Import Model.Bytes Model.Num Model.Values Model.Outcome Model.Ast
  Model.Escape Model.Directives Model.Print Generated.Tables Model.Interp
  Proofs.InterpLogic Proofs.InterpGuard Proofs.InterpRel.
Open Scope N_scope.

(* the guard "every node" *)
Lemma deep_true : forall n, deep (fun _ => true) n = true.
Proof.
  fix IH 1. intros n.
  destruct n; cbn [deep andb deep_opt]; try reflexivity;
    repeat match goal with
    | |- context [deep (fun _ => true) ?x] => rewrite (IH x)
    end; cbn [andb];
    repeat match goal with
    | |- context [deep_opt _ ?o] => destruct o; cbn [deep_opt]; [rewrite IH|]; cbn [andb]
    end;
    repeat (apply andb_true_intro; split);
    try reflexivity;
    try match goal with
    | |- forallb (deep _) ?l = true =>
        induction l as [|a r IHr]; [reflexivity | cbn [forallb]; rewrite (IH a), IHr; reflexivity]
    | |- forallb (fun kv => deep _ (snd kv)) ?l = true =>
        induction l as [|[k e] r IHr]; [reflexivity | cbn [forallb snd]; rewrite (IH e), IHr; reflexivity]
    end.
Qed.

(* [m1] stops with the fault [e], or is [m2] *)
Definition stops (e : fault) {A} (m1 m2 : M A) : Prop :=
  forall st, fst (m1 st) = of_fault e \/ m1 st = m2 st.

Lemma stops_refl e {A} (m : M A) : stops e m m.
Proof. intros st. right. reflexivity. Qed.

Lemma stops_bind e {A B} (m1 m2 : M A) (f1 f2 : A -> M B) :
  stops e m1 m2 -> (forall x, stops e (f1 x) (f2 x)) -> stops e (mbind m1 f1) (mbind m2 f2).
Proof.
  intros Hm Hf st. unfold mbind. destruct (Hm st) as [Ho|He].
  - left. destruct (m1 st) as [r s]. cbn [fst] in Ho. subst r. destruct e; reflexivity.
  - rewrite <- He. destruct (m1 st) as [[x|m|m| | | ] s]; try (right; reflexivity). apply Hf.
Qed.

Lemma approx_pure_sites : pure_sites (fun _ _ => True).
Proof. constructor; intros; exact I. Qed.

Lemma stops_logic e : walker_logic_r (fun _ => true) (@stops e) (@stops e value) (fun _ _ => True).
Proof.
  constructor; intros; try apply stops_refl.
  - (* ext *) intros st. rewrite <- H, <- H0. apply H1.
  - apply stops_bind; assumption.
  - (* read mode *) intros st. apply (H (mode st) st).
  - (* read ctx *) intros st. apply (H (ctx st) st).
  - (* scoped *)
    apply stops_bind; [apply stops_refl|]. intros _.
    apply stops_bind; [assumption|]. intros _. apply stops_refl.
  - (* eval *)
    intros st. rewrite !eval_eq. destruct (H st) as [Ho|He]; [left; rewrite Ho, classify_of_fault | right; rewrite He]; reflexivity.
  - (* block *)
    intros st. rewrite !render_block_eq.
    destruct (H (buf_pushed st)) as [Ho|He]; [left; rewrite Ho, classify_of_fault | right; rewrite He]; reflexivity.
  - (* enter *)
    intros st. rewrite !call_enter_eq. cbn zeta.
    destruct (H (entered st callee cd)) as [Ho|He]; [left; cbn [fst]; rewrite Ho, classify_of_fault | right; rewrite He]; reflexivity.
Qed.

(* the relational walker principle with the guard that holds of every node *)
Lemma walk_body_rel cf (Phi : forall A : Type, M A -> M A -> Prop) (PhiT : M value -> M value -> Prop) :
  walker_logic_r (fun _ => true) Phi PhiT (fun _ _ => True) ->
  forall w1 w2 : node -> M value, (forall n, Phi _ (w1 n) (w2 n)) -> (forall n, PhiT (w1 n) (w2 n)) ->
  forall n, Phi _ (walk_body cf w1 n) (walk_body cf w2 n).
Proof.
  intros L w1 w2 Hw HwT n.
  apply (rphi_walk_body cf (fun _ => true) Phi PhiT (fun _ _ => True) L approx_pure_sites (fun _ _ => eq_refl) w1 w2);
    [intros c _; apply Hw | intros c _; apply HwT | apply deep_true].
Qed.

(* [m1] approximates [m2] *)
Definition approx {A} (m1 m2 : M A) : Prop := stops FOutOfFuel m1 m2.

Theorem walk_approx cf : forall f f' n, (f <= f')%nat -> approx (walk cf f n) (walk cf f' n).
Proof.
  induction f as [|f IH]; intros f' n Hle; [intros st; left; reflexivity|]. destruct f' as [|f']; [lia|].
  rewrite (walk_S cf f n), (walk_S cf f' n). apply (walk_body_rel cf _ _ (stops_logic _)); intros c; apply IH; lia.
Qed.

(* an answer is stable under more fuel *)
Theorem walk_fuel_monotone cf f f' n st r st' :
  (f <= f')%nat -> walk cf f n st = (r, st') -> r <> OutOfFuel -> walk cf f' n st = (r, st').
Proof.
  intros Hle H Hr. destruct (walk_approx cf f f' n Hle st) as [Ho|He].
  - rewrite H in Ho. cbn in Ho. contradiction.
  - rewrite <- He. exact H.
Qed.

(* ... and so is the whole render: outcome, accepted writes, reported file and line *)
Theorem render_fuel_monotone cf f f' name data_id data cl bl first_id :
  (f <= f')%nat ->
  rr_outcome (render cf f name data_id data cl bl first_id) <> OutOfFuel ->
  render cf f' name data_id data cl bl first_id = render cf f name data_id data cl bl first_id.
Proof.
  intros Hle. unfold render.
  destruct (find_template (r_templates (c_reg cf)) name) as [t|]; [|reflexivity].
  set (st0 := init_state _ _ _ _ _ _).
  destruct (walk cf f (t_node t) st0) as [r st] eqn:Hrun. intros Hr.
  assert (Hne : r <> OutOfFuel).
  { intros ->. apply Hr. reflexivity. }
  rewrite (walk_fuel_monotone cf f f' (t_node t) st0 r st Hle Hrun Hne). reflexivity.
Qed.
