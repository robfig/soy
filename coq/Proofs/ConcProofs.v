(* C09 — the interleaving theory of Model/Conc.v: threads that write only
   locations they own and otherwise only read are race-free under EVERY
   schedule, for ANY number of threads, and each of them behaves exactly as
   when run alone. *)
From Coq Require Import List Arith Bool Lia.
From Soy Require Import Model.Conc.
Import ListNotations.

Section ConcProofs.
Variables loc val res : Type.
Variable loc_eqb : loc -> loc -> bool.
Hypothesis loc_eqb_spec : forall a b, loc_eqb a b = true <-> a = b.
Variable owner : loc -> option nat.

Notation prog := (prog loc val res).
Notation store := (store loc val).
Notation config := (config loc val res).
Notation event := (event loc val).
Notation exec := (@exec loc val res loc_eqb).
Notation step := (@step loc val res loc_eqb).
Notation run := (@run loc val res loc_eqb).
Notation sched_step := (@sched_step loc val res loc_eqb).
Notation solo_trace := (@solo_trace loc val res loc_eqb).
Notation solo_result := (@solo_result loc val res loc_eqb).
Notation solo_store := (@solo_store loc val res loc_eqb).
Notation allowed := (@allowed loc val owner).
Notation disciplined := (@disciplined loc val res loc_eqb owner).
Notation all_disciplined := (@all_disciplined loc val res loc_eqb owner).

Lemma set_nth_length {A} i (x : A) l : length (set_nth i x l) = length l.
Proof. revert i; induction l as [|y l IH]; intros [|i]; simpl; auto. Qed.

Lemma nth_error_set_nth_same {A} i (x : A) l : i < length l -> nth_error (set_nth i x l) i = Some x.
Proof.
  revert i; induction l as [|y l IH]; intros [|i] Hlt; simpl in *; try lia; auto.
  apply IH; lia.
Qed.

Lemma nth_error_set_nth_other {A} i j (x : A) l : i <> j -> nth_error (set_nth j x l) i = nth_error l i.
Proof.
  revert i j; induction l as [|y l IH]; intros [|i] [|j] Hne; simpl; auto; try congruence.
Qed.

Lemma proj_app i (t1 t2 : list event) : proj i (t1 ++ t2) = proj i t1 ++ proj i t2.
Proof. unfold proj. now rewrite filter_app, map_app. Qed.

Lemma proj_same i (a : access loc val) : proj i [(i, a)] = [a].
Proof. unfold proj; simpl. now rewrite Nat.eqb_refl. Qed.

Lemma proj_other i j (a : access loc val) : j <> i -> proj i [(j, a)] = [].
Proof. intros Hne. unfold proj; simpl. destruct (Nat.eqb_spec j i); [contradiction | reflexivity]. Qed.

Lemma count_occ_snoc_same (l : list nat) i : count_occ Nat.eq_dec (l ++ [i]) i = S (count_occ Nat.eq_dec l i).
Proof. rewrite count_occ_app; simpl. destruct (Nat.eq_dec i i); [lia | contradiction]. Qed.

Lemma count_occ_snoc_other (l : list nat) i j : j <> i -> count_occ Nat.eq_dec (l ++ [j]) i = count_occ Nat.eq_dec l i.
Proof. intros Hne. rewrite count_occ_app; simpl. destruct (Nat.eq_dec j i); [contradiction | lia]. Qed.

Lemma exec_triple (p : prog) s : exec p s = (solo_result p s, solo_store p s, solo_trace p s).
Proof. unfold Conc.solo_result, Conc.solo_store, Conc.solo_trace. destruct (exec p s) as [[r sf] t]; reflexivity. Qed.

Lemma exec_read l (k : val -> prog) s r sf t :
  exec (Read l k) s = (r, sf, t) -> exists t', t = Rd l :: t' /\ exec (k (s l)) s = (r, sf, t').
Proof.
  cbn [Conc.exec]. destruct (exec (k (s l)) s) as [[r' sf'] t'] eqn:E. intros H; inversion H; subst. now exists t'.
Qed.

Lemma exec_write l v (k : prog) s r sf t :
  exec (Write l v k) s = (r, sf, t) -> exists t', t = Wr l v :: t' /\ exec k (upd loc_eqb s l v) = (r, sf, t').
Proof.
  cbn [Conc.exec]. destruct (exec k (upd loc_eqb s l v)) as [[r' sf'] t'] eqn:E. intros H; inversion H; subst. now exists t'.
Qed.

Lemma exec_nil (p : prog) s r sf : exec p s = (r, sf, []) -> p = Done r /\ sf = s.
Proof.
  destruct p as [r0|l k|l v k]; intros H.
  - cbn in H. inversion H; auto.
  - apply exec_read in H. destruct H as [t' [Hc _]]; discriminate.
  - apply exec_write in H. destruct H as [t' [Hc _]]; discriminate.
Qed.

Definition agree (i : nat) (st si : store) : Prop :=
  forall l, owner l = None \/ owner l = Some i -> st l = si l.

(* thread [i], started as [p] on [s0], now [q] after [cnt] turns, global trace
   [tr], current store [st]: what it has emitted is a prefix [t] of its solo
   trace, and running [q] alone on a store [si] that agrees with [st] on every
   location [i] may touch yields the rest of the solo run *)
Definition tinv (s0 : store) (i : nat) (p q : prog) (cnt : nat) (tr : list event) (st : store) : Prop :=
  exists si t rest,
    solo_trace p s0 = t ++ rest
    /\ exec q si = (solo_result p s0, solo_store p s0, rest)
    /\ proj i tr = t
    /\ agree i st si
    /\ length t = Nat.min cnt (length (solo_trace p s0)).

Definition inv (s0 : store) (ps : list prog) (pre : list nat) (tr : list event) (c : config) : Prop :=
  length (threads c) = length ps
  /\ (forall l, owner l = None -> shared c l = s0 l)
  /\ Forall (fun e => allowed (fst e) (snd e)) tr
  /\ (forall i p, nth_error ps i = Some p ->
        exists q, nth_error (threads c) i = Some q /\ tinv s0 i p q (count_occ Nat.eq_dec pre i) tr (shared c)).

Lemma inv_init s0 ps : inv s0 ps [] [] (Build_config ps s0).
Proof.
  split; [reflexivity|]. split; [intros; reflexivity|]. split; [constructor|].
  intros i p Hp. exists p; split; [assumption|].
  exists s0, [], (solo_trace p s0).
  split; [reflexivity|]. split; [apply exec_triple|]. split; [reflexivity|].
  split; [intros l _; reflexivity|reflexivity].
Qed.

Lemma tinv_other s0 i j p q cnt tr st a st' :
  j <> i ->
  (forall l, owner l = None \/ owner l = Some i -> st' l = st l) ->
  tinv s0 i p q cnt tr st -> tinv s0 i p q cnt (tr ++ [(j, a)]) st'.
Proof.
  intros Hne Hst (si & t & rest & HT & He & Hp & Ha & Hl).
  exists si, t, rest. repeat split; auto.
  - rewrite proj_app, (proj_other i j a Hne), app_nil_r. exact Hp.
  - intros l Hl'. rewrite (Hst l Hl'). apply Ha; exact Hl'.
Qed.

(* one step of a thread against the shared store, seen from its solo run on a store that agrees on what it may touch *)
Lemma step_solo i (q q' : prog) (st st' si : store) a r sf rest :
  step q st = Some (a, q', st') -> exec q si = (r, sf, rest) ->
  exists rest', rest = a :: rest' /\
    (allowed i a -> agree i st si ->
     exists si', exec q' si' = (r, sf, rest') /\ agree i st' si' /\ forall l, owner l <> Some i -> st' l = st l).
Proof.
  destruct q as [r0|l k|l v k]; cbn [Conc.step]; intros Hs He; inversion Hs; subst; clear Hs.
  - apply exec_read in He as (rest' & -> & He). exists rest'. split; [reflexivity|]. intros Hal Ha.
    exists si. rewrite (Ha l Hal). auto.
  - apply exec_write in He as (rest' & -> & He). exists rest'. split; [reflexivity|]. intros Hal Ha.
    exists (upd loc_eqb si l v). split; [exact He|]. split.
    + intros l' Hl'. unfold Conc.upd. destruct (loc_eqb l' l); [reflexivity | apply Ha, Hl'].
    + intros l' Hl'. unfold Conc.upd. destruct (loc_eqb l' l) eqn:E; [|reflexivity].
      apply loc_eqb_spec in E. subst. contradiction.
Qed.

Lemma inv_step s0 ps pre tr c j c' ev :
  all_disciplined ps s0 ->
  inv s0 ps pre tr c -> sched_step j c = (c', ev) -> inv s0 ps (pre ++ [j]) (tr ++ ev) c'.
Proof.
  intros Hdisc (Hlen & Hsh & Hall & Hth) Hstep. unfold Conc.sched_step in Hstep.
  (* an entry that names no thread, or a finished one, is skipped *)
  assert (Hskip : (forall q, nth_error (threads c) j = Some q -> exists r, q = Done r) -> inv s0 ps (pre ++ [j]) tr c).
  { intros Hdone. repeat split; auto. intros i p Hp. destruct (Hth i p Hp) as (q & Hq & Hti). exists q. split; [exact Hq|].
    destruct (Nat.eq_dec j i) as [->|Hne]; [|rewrite (count_occ_snoc_other pre i j Hne); exact Hti].
    destruct (Hdone q Hq) as [r ->]. destruct Hti as (si & t & rest & HT & He & Hp' & Ha & Hl).
    assert (rest = []) by (cbn in He; now inversion He). subst rest.
    exists si, t, []. repeat split; auto. rewrite count_occ_snoc_same. rewrite app_nil_r in HT. rewrite HT in Hl |- *. lia. }
  destruct (nth_error (threads c) j) as [qj|] eqn:Hj.
  2:{ inversion Hstep; subst. rewrite app_nil_r. apply Hskip. discriminate. }
  destruct (step qj (shared c)) as [[[a q'] st']|] eqn:Hs.
  2:{ inversion Hstep; subst. rewrite app_nil_r. apply Hskip. intros q [= <-]. destruct qj; try discriminate. eauto. }
  inversion Hstep; subst c' ev; clear Hstep Hskip.
  assert (Hjlt : j < length ps) by (rewrite <- Hlen; apply nth_error_Some; congruence).
  destruct (nth_error ps j) as [pj|] eqn:Hpj; [|apply nth_error_None in Hpj; lia].
  destruct (Hth j pj Hpj) as (qj' & Hqj' & (si & t & rest & HT & He & Hp & Ha & Hl)).
  assert (qj' = qj) by congruence; subst qj'.
  destruct (step_solo j _ _ _ _ _ _ _ _ _ Hs He) as (rest' & -> & Hnext).
  assert (Hal : allowed j a).
  { specialize (Hdisc j pj Hpj). unfold Conc.disciplined in Hdisc. rewrite HT in Hdisc.
    apply Forall_app in Hdisc. destruct Hdisc as [_ Hd]. now inversion Hd. }
  destruct (Hnext Hal Ha) as (si' & He' & Ha' & Hsame).
  repeat split; cbn [threads shared].
  - now rewrite set_nth_length.
  - intros l Hl'. rewrite Hsame by congruence. apply Hsh, Hl'.
  - apply Forall_app; split; [assumption|]. constructor; [exact Hal|constructor].
  - intros i p Hpi. destruct (Nat.eq_dec i j) as [->|Hne].
    + assert (p = pj) by congruence; subst p.
      exists q'; split; [apply nth_error_set_nth_same; lia|].
      exists si', (t ++ [a]), rest'. repeat split; auto.
      * rewrite HT, <- app_assoc; reflexivity.
      * rewrite proj_app, proj_same, Hp; reflexivity.
      * rewrite count_occ_snoc_same. rewrite HT in Hl |- *. rewrite !app_length in *. cbn [length] in *. lia.
    + destruct (Hth i p Hpi) as (q & Hq & Hti).
      exists q; split; [rewrite nth_error_set_nth_other; auto|].
      rewrite (count_occ_snoc_other pre i j); auto.
      apply (tinv_other s0 i j p q _ tr (shared c)); auto.
      intros l [Hl'|Hl']; apply Hsame; congruence.
Qed.

Lemma run_inv s0 ps : all_disciplined ps s0 ->
  forall sched pre tr c c' tr', inv s0 ps pre tr c -> run sched c = (c', tr') -> inv s0 ps (pre ++ sched) (tr ++ tr') c'.
Proof.
  intros Hdisc sched. induction sched as [|j r IH]; intros pre tr c c' tr' Hinv Hrun.
  - cbn in Hrun. inversion Hrun; subst. now rewrite !app_nil_r.
  - cbn [Conc.run] in Hrun.
    destruct (sched_step j c) as [c1 e1] eqn:H1. destruct (run r c1) as [c2 e2] eqn:H2.
    inversion Hrun; subst c' tr'; clear Hrun.
    pose proof (inv_step s0 ps pre tr c j c1 e1 Hdisc Hinv H1) as Hinv1.
    specialize (IH (pre ++ [j]) (tr ++ e1) c1 c2 e2 Hinv1 H2).
    rewrite <- !app_assoc in IH. exact IH.
Qed.

Lemma allowed_no_conflict (e1 e2 : event) :
  allowed (fst e1) (snd e1) -> allowed (fst e2) (snd e2) -> ~ conflict e1 e2.
Proof.
  destruct e1 as [i1 a1], e2 as [i2 a2]; cbn [fst snd]. intros H1 H2 (Hne & Hloc & Hw). cbn [fst snd] in *.
  destruct a1 as [l1|l1 v1], a2 as [l2|l2 v2]; cbn in *; subst;
    (destruct Hw; try discriminate); try (destruct H1; congruence); try (destruct H2; congruence); congruence.
Qed.

(* No race, in any interleaving, for any number of threads. *)
Theorem readonly_sharing_race_free :
  forall (ps : list prog) (s0 : store) (sched : list nat),
    all_disciplined ps s0 ->
    ~ has_race (snd (run sched (Build_config ps s0))).
Proof.
  intros ps s0 sched Hdisc (i & j & e1 & e2 & Hij & H1 & H2 & Hc).
  destruct (run sched (Build_config ps s0)) as [c tr] eqn:Hrun. cbn [snd] in *.
  pose proof (run_inv s0 ps Hdisc sched [] [] _ _ _ (inv_init s0 ps) Hrun) as (_ & _ & Hall & _).
  cbn [app] in Hall. rewrite Forall_forall in Hall.
  apply (allowed_no_conflict e1 e2); auto; apply Hall; eapply nth_error_In; eauto.
Qed.

(* Every thread computes what it computes alone. *)
Theorem readonly_sharing_sequential :
  forall (ps : list prog) (s0 : store) (sched : list nat) c tr,
    all_disciplined ps s0 ->
    run sched (Build_config ps s0) = (c, tr) ->
    (* the shared part of the store is the initial one *)
    (forall l, owner l = None -> shared c l = s0 l)
    /\ length (threads c) = length ps
    /\ forall i p, nth_error ps i = Some p ->
         (* what thread i has done so far is a prefix of its solo trace: as many accesses as it had turns *)
         proj i tr = firstn (count_occ Nat.eq_dec sched i) (solo_trace p s0)
         (* a finished thread returns its solo result and leaves its private locations as its solo run does *)
         /\ (forall r, nth_error (threads c) i = Some (Done r) ->
               r = solo_result p s0 /\ forall l, owner l = Some i -> shared c l = solo_store p s0 l)
         (* and it does finish once it has had as many turns as its solo run has accesses *)
         /\ (length (solo_trace p s0) <= count_occ Nat.eq_dec sched i ->
               nth_error (threads c) i = Some (Done (solo_result p s0))).
Proof.
  intros ps s0 sched c tr Hdisc Hrun.
  pose proof (run_inv s0 ps Hdisc sched [] [] _ _ _ (inv_init s0 ps) Hrun) as (Hlen & Hsh & _ & Hth).
  cbn [app] in *. split; [exact Hsh|]. split; [exact Hlen|].
  intros i p Hpi.
  destruct (Hth i p Hpi) as (q & Hq & (si & t & rest & HT & He & Hp & Ha & Hl)).
  split; [|split].
  - rewrite Hp. rewrite HT in Hl |- *.
    destruct (Nat.le_gt_cases (length (t ++ rest)) (count_occ Nat.eq_dec sched i)) as [Hle|Hgt].
    + rewrite firstn_all2 by exact Hle. rewrite app_length in *.
      assert (Hr0 : length rest = 0) by lia. destruct rest; [now rewrite app_nil_r|discriminate].
    + rewrite app_length in *.
      assert (Hlt : length t = count_occ Nat.eq_dec sched i) by lia.
      rewrite <- Hlt, firstn_app, firstn_all, Nat.sub_diag. symmetry; apply app_nil_r.
  - intros r Hr. rewrite Hq in Hr. inversion Hr; subst q. cbn in He. injection He as E1 E2 E3.
    split; [exact E1|].
    intros l Hl'. rewrite <- E2. apply Ha. now right.
  - intros Hcnt. rewrite HT in Hl, Hcnt. rewrite app_length in *.
    assert (Hr0 : length rest = 0) by lia. destruct rest; [|discriminate].
    apply exec_nil in He. destruct He as [-> _]. exact Hq.
Qed.

End ConcProofs.

Section AllShared.
Variables loc val res : Type.
Variable loc_eqb : loc -> loc -> bool.
Hypothesis loc_eqb_spec : forall a b, loc_eqb a b = true <-> a = b.

Definition no_owner : loc -> option nat := fun _ => None.

Lemma write_free_disciplined i (p : prog loc val res) s :
  write_free loc_eqb p s -> disciplined loc_eqb no_owner i p s.
Proof.
  unfold write_free, disciplined. intros H. eapply Forall_impl; [|exact H].
  intros [l|l v]; cbn; intros Hw; [now left | discriminate].
Qed.

Theorem write_free_race_free :
  forall (ps : list (prog loc val res)) (s0 : store loc val) (sched : list nat),
    (forall p, In p ps -> write_free loc_eqb p s0) ->
    ~ has_race (snd (run loc_eqb sched (Build_config ps s0))).
Proof.
  intros ps s0 sched H. apply (readonly_sharing_race_free loc val res loc_eqb loc_eqb_spec no_owner).
  intros i p Hp. apply write_free_disciplined. apply H. eapply nth_error_In; eauto.
Qed.

Theorem write_free_sequential :
  forall (ps : list (prog loc val res)) (s0 : store loc val) (sched : list nat) c tr,
    (forall p, In p ps -> write_free loc_eqb p s0) ->
    run loc_eqb sched (Build_config ps s0) = (c, tr) ->
    (forall l, shared c l = s0 l)
    /\ length (threads c) = length ps
    /\ forall i p, nth_error ps i = Some p ->
         proj i tr = firstn (count_occ Nat.eq_dec sched i) (solo_trace loc_eqb p s0)
         /\ (forall r, nth_error (threads c) i = Some (Done r) -> r = solo_result loc_eqb p s0)
         /\ (length (solo_trace loc_eqb p s0) <= count_occ Nat.eq_dec sched i ->
               nth_error (threads c) i = Some (Done (solo_result loc_eqb p s0))).
Proof.
  intros ps s0 sched c tr H Hrun.
  assert (Hd : all_disciplined loc_eqb no_owner ps s0).
  { intros i p Hp. apply write_free_disciplined. apply H. eapply nth_error_In; eauto. }
  destruct (readonly_sharing_sequential loc val res loc_eqb loc_eqb_spec no_owner ps s0 sched c tr Hd Hrun) as (Hsh & Hlen & Hth).
  repeat split; auto.
  - destruct (Hth i p H0) as (Hp & _ & _). exact Hp.
  - destruct (Hth i p H0) as (_ & Hr & _). apply Hr; assumption.
  - destruct (Hth i p H0) as (_ & _ & Hc). exact Hc.
Qed.

End AllShared.
