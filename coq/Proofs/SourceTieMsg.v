(* Source tie, family 75-gotrans-soymsg (soymsg/id.go, placeholder.go): the
   fingerprint combination and calcID's meaning/mask step, and the tag-name table and byte class
   of the placeholder namer, against the same functions and
   fragments as gotrans translates them from the source of the tree under check.  hash32 itself (a loop) is a
   parameter of the translated fingerprint; it is instantiated with Model/MsgId.v's hash32
   (tied to the translated hash32 in Proofs/SourceTieMsgLoops.v). *)
From Coq Require Import ZArith NArith Bool Lia ZifyBool List.
From Soy Require Import Model.Bytes Model.Outcome Generated.Tables Model.MsgId Proofs.SourceTieBase.
From Soy Require Import Proofs.BytesBase.
Import ListNotations.
Open Scope N_scope.

(* placeholder.go isAlphaNumeric (bytes) *)
Lemma c_alnum_matches_source (c : N) : c_alnum c = src_soymsg_isAlphaNumeric (Z.of_N c).
Proof. unfold c_alnum, c_letter, c_upper, c_lower, c_digit, src_soymsg_isAlphaNumeric. bool_lia. Qed.

(* placeholder.go htmlTagNames[tag] *)
Lemma html_tag_names_matches_source (tag : bstr) :
  assoc_s tag html_tag_names = assoc_s tag src_soymsg_htmlTagNames.
Proof.
  rewrite <- (assoc_s_ext (fun x : bstr => x) bstr_eqb html_tag_names src_soymsg_htmlTagNames);
    [destruct (assoc_s tag html_tag_names); reflexivity|exact bstr_eqb_true|vm_compute; reflexivity].
Qed.

(* id.go hash32(str, 0, len(str), seed) as Model/MsgId.v models it *)
Definition hash32_z (str : bstr) (start limit c : Z) : Z := Z.of_N (hash32 str (Z.to_N c)).

Lemma Z_of_N_w64 (x : N) : Z.of_N (w64 x) = go_wrap_u 64 (Z.of_N x).
Proof. unfold w64, go_wrap_u. rewrite Z_of_N_mod by discriminate. reflexivity. Qed.

(* id.go fingerprint: the two seeds, the degenerate case and its xor constants, (hi << 32) | (lo & 0xffffffff) *)
Theorem fingerprint_matches_source (s : bstr) :
  Z.of_N (fingerprint s) = src_soymsg_fingerprint hash32_z s.
Proof.
  unfold fingerprint, src_soymsg_fingerprint, hash32_z.
  cbv [fp_seed_hi fp_seed_lo fp_xor_hi fp_xor_lo]. cbn [Z.to_N].
  repeat match goal with
         | |- context [hash32 s ?c] => let x := fresh "h" in generalize (hash32 s c); intro x
         end.
  cbv zeta.
  (* the degenerate case is decided on the model's side; the source's own test (whatever its shape) follows by lia *)
  match goal with
  | |- context [if ?d then N.lxor _ _ else _] => destruct d eqn:E
  end; st_decide_ifs;
    rewrite Z_of_N_lor, Z_of_N_land, Z_of_N_w64, Z_of_N_shiftl, ?Z_of_N_lxor;
    (* x ^ c written c ^ x in the source *)
    repeat match goal with
           | |- context [Z.lxor ?a (Z.of_N ?x)] =>
               lazymatch a with Z.of_N _ => fail | _ => rewrite (Z.lxor_comm a (Z.of_N x)) end
           end;
    first [ reflexivity | rewrite Z.lor_comm; reflexivity ].
Qed.

(* id.go calcID after `var fp = fingerprint(buf.Bytes())`: the meaning step and the final mask *)
Theorem calc_id_matches_source (fpstr meaning : bstr) :
  Z.of_N (calc_id fpstr meaning) = src_soymsg_calcID_tail hash32_z meaning (Z.of_N (fingerprint fpstr)).
Proof.
  unfold calc_id, src_soymsg_calcID_tail. cbv zeta. cbv [calc_id_mask].
  generalize (fingerprint fpstr) as fp. intros fp.
  rewrite <- fingerprint_matches_source. generalize (fingerprint meaning) as fm. intros fm.
  rewrite bstr_eqb_nil_r.
  destruct meaning as [|m0 mr]; cbn [negb]; [now rewrite Z_of_N_land|].
  assert (Htop : (0 <? N.land fp 9223372036854775808) = Z.gtb (Z.land (Z.of_N fp) 9223372036854775808) 0).
  { transitivity (Z.gtb (Z.of_N (N.land fp 9223372036854775808)) 0); [lia|]. rewrite Z_of_N_land. reflexivity. }
  rewrite <- Htop.
  destruct (0 <? N.land fp 9223372036854775808);
    rewrite Z_of_N_land, Z_of_N_w64, !N2Z.inj_add, Z_of_N_w64, Z_of_N_shiftl;
    unfold go_wrap_u; rewrite Zplus_mod_idemp_l; reflexivity.
Qed.

