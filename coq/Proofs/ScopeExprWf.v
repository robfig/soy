(* C02, parser shape, part 1: every tree the expression parser (Model/ExprParser.v,
   parse_expr = tree.parseExpr) returns is an expression in the sense of Spec/Cmd.v
   ([wf KExpr]): operands, arguments, list items and map values are expressions, the
   access chain of a data reference holds access nodes whose bracketed part is an
   expression.  For every token stream, precedence and budget. *)
From Soy Require Import Model.Bytes Model.Num Model.Values Model.Outcome Model.Ast Model.Token Model.NumLit Model.Quote Generated.Tables
  Model.ExprParser Spec.Cmd.
Open Scope N_scope.

Definition epost {A} (Q : A -> Prop) (r : presult A) : Prop :=
  match r with POk a _ => Q a | _ => True end.

Lemma epost_bind {A B} (P : A -> Prop) (Q : B -> Prop) (x : presult A) (f : A -> pst -> presult B) :
  epost P x -> (forall a st, P a -> epost Q (f a st)) -> epost Q (pbind x f).
Proof. destruct x as [a st| | |]; cbn [pbind epost]; auto. Qed.

Lemma epost_any {A} (x : presult A) : epost (fun _ => True) x.
Proof. destruct x; exact I. Qed.

Lemma epost_errorf {A} (Q : A -> Prop) c st : epost Q (@p_errorf A c st).
Proof. exact I. Qed.
Lemma epost_unexpected {A} (Q : A -> Prop) t st : epost Q (@p_unexpected A t st).
Proof. unfold p_unexpected. destruct (_ =? _); exact I. Qed.

Notation ex n := (wf KExpr n = true).

Lemma forallb_snoc {A} (f : A -> bool) l x : forallb f l = true -> f x = true -> forallb f (l ++ [x]) = true.
Proof. intros H K. rewrite forallb_app, H. cbn. rewrite K. reflexivity. Qed.

Section Body.
Variable w : N -> pst -> presult node.
Hypothesis Hw : forall prec st, epost (fun n => ex n) (w prec st).

Ltac eb := eapply epost_bind; [ | intros ? ? ? ].
Ltac efin := first [ apply epost_errorf | apply epost_unexpected | exact I ].

Lemma wf_ternary cond st : ex cond -> epost (fun n => ex n) (parse_ternary w cond st).
Proof.
  intros Hc. unfold parse_ternary. eb; [apply Hw|]. eb; [apply epost_any|]. eb; [apply Hw|].
  cbn [epost wf]. cbn [wf] in *. rewrite Hc, H, H1. reflexivity.
Qed.

Lemma wf_new_binary t n1 n2 bn : new_binary_op t n1 n2 = Some bn -> ex n1 -> ex n2 -> ex bn.
Proof.
  unfold new_binary_op. destruct (assoc _ _) as [[i ?]|]; [|discriminate]. destruct (binop_of_index i); [|discriminate].
  intros [= <-] H1 H2. cbn [wf]. rewrite H1, H2. reflexivity.
Qed.
Lemma wf_new_unary t n1 u : new_unary_op t n1 = Some u -> ex n1 -> ex u.
Proof.
  unfold new_unary_op. destruct (assoc _ _) as [[|p]|]; try discriminate.
  - intros [= <-] H. exact H.
  - destruct p; try discriminate. intros [= <-] H. exact H.
Qed.

Lemma wf_expr_loop lf : forall prec n st, ex n -> epost (fun n => ex n) (expr_loop w lf prec n st).
Proof.
  induction lf as [|lf IH]; intros prec n st Hn; [exact I|]. cbn [expr_loop].
  destruct (p_next st) as [t st1]. destruct (_ || _).
  - destruct (_ && _); [apply wf_ternary; exact Hn | exact Hn].
  - eb; [apply Hw|]. destruct (new_binary_op t n a) eqn:E; [|efin].
    apply IH. eapply wf_new_binary; eassumption.
Qed.

Lemma wf_data_ref_loop lf : forall p key acc st, forallb (wf KAccess) acc = true ->
  epost (fun n => ex n) (data_ref_loop w lf p key acc st).
Proof.
  induction lf as [|lf IH]; intros p key acc st Ha; [exact I|]. cbn [data_ref_loop].
  destruct (p_next st) as [t st1]. cbv zeta.
  destruct (_ || _).
  { destruct (slice_from _ _); [|exact I]. apply IH. apply forallb_snoc; [exact Ha | reflexivity]. }
  destruct (_ || _).
  { destruct (slice_from _ _); [|exact I]. destruct (parse_int _ _); [|efin].
    apply IH. apply forallb_snoc; [exact Ha | reflexivity]. }
  destruct (_ || _); [|exact Ha].
  eb; [apply Hw|]. eb; [apply epost_any|]. apply IH. apply forallb_snoc; [exact Ha | exact H].
Qed.

Lemma wf_data_ref lf t st : epost (fun n => ex n) (parse_data_ref w lf t st).
Proof. unfold parse_data_ref. destruct (slice_from _ _); [|exact I]. apply wf_data_ref_loop. reflexivity. Qed.

Lemma wf_list_loop lf : forall p items st, forallb (wf KExpr) items = true ->
  epost (fun n => ex n) (list_loop w lf p items st).
Proof.
  induction lf as [|lf IH]; intros p items st Hi; [exact I|]. cbn [list_loop].
  eb; [apply Hw|]. cbv zeta. destruct (p_next st0) as [nx st2].
  assert (Hi' : forallb (wf KExpr) (items ++ [a]) = true) by (apply forallb_snoc; assumption).
  destruct (_ =? _); [exact Hi'|]. destruct (negb _); [efin | apply IH; exact Hi'].
Qed.

Lemma items_set_wf l : forall k v, forallb (fun kv : bstr * node => wf KExpr (snd kv)) l = true -> ex v ->
  forallb (fun kv : bstr * node => wf KExpr (snd kv)) (items_set l k v) = true.
Proof.
  induction l as [|[k' v'] r IH]; intros k v Hl Hv; cbn [items_set forallb snd]; [rewrite Hv; reflexivity|].
  cbn [forallb snd] in Hl. apply andb_true_iff in Hl as [H1 H2].
  destruct (bstr_eqb k k'); cbn [forallb snd]; [rewrite Hv, H2 | rewrite H1, IH by assumption]; reflexivity.
Qed.

Lemma wf_map_loop lf : forall p items key st, forallb (fun kv : bstr * node => wf KExpr (snd kv)) items = true ->
  epost (fun n => ex n) (map_loop w lf p items key st).
Proof.
  induction lf as [|lf IH]; intros p items key st Hi; [exact I|]. cbn [map_loop].
  eb; [apply Hw|]. cbv zeta. destruct (p_next st0) as [nx st2].
  assert (Hi' := items_set_wf items key a Hi H).
  destruct (_ =? _); [exact Hi'|]. destruct (negb _); [efin|].
  eb; [apply epost_any|]. destruct (unquote_string _); [|efin]. eb; [apply epost_any|]. apply IH. exact Hi'.
Qed.

Lemma wf_list_or_map lf t st : epost (fun n => ex n) (parse_list_or_map w lf t st).
Proof.
  unfold parse_list_or_map. destruct (p_next st) as [nx st1].
  destruct (_ =? _); [eb; [apply epost_any | reflexivity]|].
  destruct (_ =? _); [reflexivity|].
  eb; [apply Hw|]. destruct (p_next st0) as [d st3].
  destruct (_ =? _).
  { unfold parse_map_literal. destruct a; try efin. apply wf_map_loop. reflexivity. }
  destruct (_ =? _); [apply wf_list_loop; cbn; rewrite H; reflexivity|].
  destruct (_ =? _); [cbn [epost wf forallb]; rewrite H; reflexivity | efin].
Qed.

Lemma wf_global_loop lf : forall p name nx st, epost (fun n => ex n) (global_loop lf p name nx st).
Proof.
  induction lf as [|lf IH]; intros p name nx st; [exact I|]. cbn [global_loop].
  destruct (_ =? _); [|reflexivity]. destruct (p_next st) as [nx' st1]. apply IH.
Qed.

Lemma wf_func_loop lf : forall p name args st, forallb (wf KExpr) args = true ->
  epost (fun n => ex n) (func_loop w lf p name args st).
Proof.
  induction lf as [|lf IH]; intros p name args st Ha; [exact I|]. cbn [func_loop].
  eb; [apply Hw|]. cbv zeta. destruct (p_next st0) as [nx st2].
  assert (Ha' : forallb (wf KExpr) (args ++ [a]) = true) by (apply forallb_snoc; assumption).
  destruct (_ =? _); [apply IH; exact Ha'|]. destruct (_ =? _); [exact Ha' | efin].
Qed.

Lemma wf_function_node lf t st : epost (fun n => ex n) (new_function_node w lf t st).
Proof.
  unfold new_function_node. destruct (p_peek_tok st) as [pk st1]. destruct (_ =? _).
  - destruct (p_next st1). reflexivity.
  - apply wf_func_loop. reflexivity.
Qed.

Lemma wf_value_node lf t st : epost (fun n => ex n) (new_value_node w lf t st).
Proof.
  unfold new_value_node. cbv zeta.
  destruct (_ =? _); [reflexivity|]. destruct (_ =? _); [reflexivity|].
  destruct (_ =? _); [destruct (if is_prefix _ _ then _ else _); [reflexivity | efin]|].
  destruct (_ =? _); [destruct (parse_float _); [reflexivity|]; destruct (parse_float_round _); try efin; reflexivity|].
  destruct (_ =? _); [destruct (unquote_string _); [reflexivity | efin]|].
  destruct (_ =? _); [apply wf_list_or_map|].
  destruct (_ =? _); [apply wf_data_ref|].
  destruct (_ =? _); [|efin].
  destruct (p_next st) as [nx st1]. destruct (negb _); [apply wf_global_loop | apply wf_function_node].
Qed.

Lemma wf_first_term lf st : epost (fun n => ex n) (parse_first_term w lf st).
Proof.
  unfold parse_first_term. destruct (p_next st) as [t st1].
  destruct (is_unary_op _).
  { eb; [apply Hw|]. destruct (new_unary_op t a) eqn:E; [|efin]. eapply wf_new_unary; eassumption. }
  destruct (_ =? _); [eb; [apply Hw|]; eb; [apply epost_any | exact H]|].
  destruct (is_value _); [apply wf_value_node | efin].
Qed.

Lemma wf_expr_body lf prec st : epost (fun n => ex n) (parse_expr_body w lf prec st).
Proof. unfold parse_expr_body. eb; [apply wf_first_term | apply wf_expr_loop; assumption]. Qed.
End Body.

Theorem parse_expr_post fuel : forall prec st, epost (fun n => ex n) (parse_expr fuel prec st).
Proof.
  induction fuel as [|f IH]; intros prec st; [exact I|]. cbn [parse_expr]. apply wf_expr_body. exact IH.
Qed.

(* every tree parseExpr returns is an expression *)
Theorem parse_expr_wf fuel prec st n st' : parse_expr fuel prec st = POk n st' -> wf KExpr n = true.
Proof. intros H. pose proof (parse_expr_post fuel prec st) as P. rewrite H in P. exact P. Qed.
