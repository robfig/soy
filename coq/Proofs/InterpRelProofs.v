(* A relational reading of Model/Interp.v, used by C11 (rendering with a
   catalogue against rendering without one).

   Two machine states are equivalent when they differ only in how the output
   written so far is cut into Write calls (top-level writer and capture
   buffers) and in the error-position register [cur]; both writers are
   fault-free.  [x ⊑ y] on results: x ran out of the model's fuel, or x and y
   have the same outcome and equivalent states.  [mrel m1 m2]: equivalent start
   states give ⊑-related results.  The main lemma is parametricity of one
   unfolding of the walker: if the recursive calls are related on the nodes of a
   tree, so is [walk_body] on the tree.  [okm] is a predicate on the {msg} nodes
   of the tree (C11: "the catalogue entry of this message is the identity").
   An instance of [bphi_walk_body] (Proofs/InterpSub.v); not about Proofs/InterpRel.v, the guarded
   relational principle of C03 and C01. *)
From Soy Require Import Model.Bytes Model.Outcome Model.Num Model.Values Model.Ast Model.Escape
  Model.Directives Model.Print Model.Interp Generated.Tables Proofs.InterpSub.
Open Scope N_scope.

Definition chunks (l : list bstr) : bstr := concat_b (rev l).

Definition st_equiv (s1 s2 : mstate) : Prop :=
  ctx s1 = ctx s2 /\ mode s1 = mode s2 /\ tmpl s1 = tmpl s2 /\ depth_ s1 = depth_ s2 /\
  chunks (out s1) = chunks (out s2) /\
  Forall2 (fun b1 b2 => chunks b1 = chunks b2) (bufs s1) (bufs s2) /\
  calls_left s1 = None /\ calls_left s2 = None /\ bytes_left s1 = None /\ bytes_left s2 = None /\
  next_id s1 = next_id s2 /\ unbound s1 = unbound s2 /\ shared_writes s1 = shared_writes s2.

Definition res_rel {A} (x y : outcome A * mstate) : Prop :=
  fst x = OutOfFuel \/ (fst x = fst y /\ st_equiv (snd x) (snd y)).

Definition mrel {A} (m1 m2 : M A) : Prop :=
  forall s1 s2, st_equiv s1 s2 -> res_rel (m1 s1) (m2 s2).

Lemma Forall2_chunks_refl l : Forall2 (fun b1 b2 : list bstr => chunks b1 = chunks b2) l l.
Proof. induction l; constructor; auto. Qed.

Lemma st_equiv_refl_l s1 s2 : st_equiv s1 s2 -> st_equiv s1 s1.
Proof.
  unfold st_equiv. intros H. decompose [and] H. repeat split; auto. apply Forall2_chunks_refl.
Qed.

Lemma Forall2_chunks_sym l1 l2 :
  Forall2 (fun b1 b2 : list bstr => chunks b1 = chunks b2) l1 l2 ->
  Forall2 (fun b1 b2 : list bstr => chunks b1 = chunks b2) l2 l1.
Proof. induction 1; constructor; auto. Qed.

Lemma Forall2_chunks_trans l1 l2 l3 :
  Forall2 (fun b1 b2 : list bstr => chunks b1 = chunks b2) l1 l2 ->
  Forall2 (fun b1 b2 : list bstr => chunks b1 = chunks b2) l2 l3 ->
  Forall2 (fun b1 b2 : list bstr => chunks b1 = chunks b2) l1 l3.
Proof.
  intros H; revert l3; induction H; intros l3 H3; inversion H3; subst; constructor; [congruence | auto].
Qed.

Lemma st_equiv_sym s1 s2 : st_equiv s1 s2 -> st_equiv s2 s1.
Proof.
  unfold st_equiv. intros H. decompose [and] H. repeat split; auto. apply Forall2_chunks_sym; assumption.
Qed.

Lemma st_equiv_trans s1 s2 s3 : st_equiv s1 s2 -> st_equiv s2 s3 -> st_equiv s1 s3.
Proof.
  unfold st_equiv. intros H1 H2. decompose [and] H1. decompose [and] H2.
  repeat split; try congruence. eapply Forall2_chunks_trans; eassumption.
Qed.

Lemma mrel_trans {A} (m1 m2 m3 : M A) : mrel m1 m2 -> mrel m2 m3 -> mrel m1 m3.
Proof.
  intros H12 H23 s1 s3 He.
  destruct (H12 s1 s1 (st_equiv_refl_l _ _ He)) as [Hf | [Ho Hs]]; [left; exact Hf|].
  destruct (H23 s1 s3 He) as [Hf | [Ho' Hs']].
  - left. congruence.
  - right. split; [congruence | eapply st_equiv_trans; eassumption].
Qed.

Lemma mrel_ret {A} (x : A) : mrel (ret x) (ret x).
Proof. intros s1 s2 H. right. split; [reflexivity | exact H]. Qed.
Lemma mrel_fail {A} m : mrel (@fail A m) (fail m).
Proof. intros s1 s2 H. right. split; [reflexivity | exact H]. Qed.
Lemma mrel_lift {A} (o : outcome A) : mrel (lift o) (lift o).
Proof. intros s1 s2 H. right. split; [reflexivity | exact H]. Qed.
Lemma mrel_fuel {A} (m : M A) : mrel (lift OutOfFuel) m.
Proof. intros s1 s2 H. left. reflexivity. Qed.

Lemma mrel_bind {A B} (m1 m2 : M A) (f1 f2 : A -> M B) :
  mrel m1 m2 -> (forall x, mrel (f1 x) (f2 x)) -> mrel (mbind m1 f1) (mbind m2 f2).
Proof.
  intros Hm Hf s1 s2 He. unfold mbind. specialize (Hm s1 s2 He). unfold res_rel in *.
  destruct (m1 s1) as [r1 t1], (m2 s2) as [r2 t2]. cbn [fst snd] in Hm.
  destruct Hm as [-> | [-> Ht]]; [left; reflexivity|].
  destruct r2; [apply Hf, Ht | right; split; [reflexivity | exact Ht] ..].
Qed.

Lemma mrel_get_bind {A} (k1 k2 : mstate -> M A) :
  (forall s1 s2, st_equiv s1 s2 -> mrel (k1 s1) (k2 s2)) -> mrel (mbind get k1) (mbind get k2).
Proof. intros H s1 s2 He. unfold mbind, get. apply (H s1 s2 He s1 s2 He). Qed.

Lemma mrel_modify (f1 f2 : mstate -> mstate) :
  (forall s1 s2, st_equiv s1 s2 -> st_equiv (f1 s1) (f2 s2)) -> mrel (modify f1) (modify f2).
Proof. intros H s1 s2 He. right. split; [reflexivity | apply H, He]. Qed.

Ltac eqv_tac := unfold st_equiv in *; cbn [ctx mode cur tmpl depth_ out bufs calls_left bytes_left next_id unbound shared_writes
                                             set_ctx set_mode set_cur set_depth set_out set_bufs bump_id bump_unbound note_shared] in *.

Lemma eqv_set_cur s1 s2 p1 p2 : st_equiv s1 s2 -> st_equiv (set_cur s1 p1) (set_cur s2 p2).
Proof. intros H. eqv_tac. tauto. Qed.
Lemma eqv_set_ctx s1 s2 c : st_equiv s1 s2 -> st_equiv (set_ctx s1 c) (set_ctx s2 c).
Proof. intros H. eqv_tac. tauto. Qed.
Lemma eqv_set_mode s1 s2 m : st_equiv s1 s2 -> st_equiv (set_mode s1 m) (set_mode s2 m).
Proof. intros H. eqv_tac. tauto. Qed.
Lemma eqv_set_depth s1 s2 d : st_equiv s1 s2 -> st_equiv (set_depth s1 d) (set_depth s2 d).
Proof. intros H. eqv_tac. tauto. Qed.
Lemma eqv_bump_id s1 s2 : st_equiv s1 s2 -> st_equiv (bump_id s1) (bump_id s2).
Proof. intros H. eqv_tac. decompose [and] H. repeat split; auto; congruence. Qed.
Lemma eqv_bump_unbound s1 s2 : st_equiv s1 s2 -> st_equiv (bump_unbound s1) (bump_unbound s2).
Proof. intros H. eqv_tac. decompose [and] H. repeat split; auto; congruence. Qed.
Lemma eqv_note_shared s1 s2 i : st_equiv s1 s2 -> st_equiv (note_shared s1 i) (note_shared s2 i).
Proof. intros H. eqv_tac. decompose [and] H. repeat split; auto; congruence. Qed.

Lemma eqv_ctx s1 s2 : st_equiv s1 s2 -> ctx s1 = ctx s2. Proof. unfold st_equiv; tauto. Qed.
Lemma eqv_mode s1 s2 : st_equiv s1 s2 -> mode s1 = mode s2. Proof. unfold st_equiv; tauto. Qed.
Lemma eqv_depth s1 s2 : st_equiv s1 s2 -> depth_ s1 = depth_ s2. Proof. unfold st_equiv; tauto. Qed.
Lemma eqv_next_id s1 s2 : st_equiv s1 s2 -> next_id s1 = next_id s2. Proof. unfold st_equiv; tauto. Qed.

Lemma chunks_cons w l : chunks (w :: l) = chunks l ++ w.
Proof.
  unfold chunks. cbn [rev]. induction (rev l) as [|x r IH]; cbn [app concat_b]; [rewrite app_nil_r; reflexivity|].
  rewrite IH, app_assoc. reflexivity.
Qed.

Lemma write_ok s w : calls_left s = None -> bytes_left s = None ->
  write w s = (Ok tt, match bufs s with
                      | buf :: rest => set_bufs s ((w :: buf) :: rest)
                      | [] => set_out s (w :: out s) None None
                      end).
Proof. intros Hc Hb. unfold write. destruct (bufs s); [|reflexivity]. rewrite Hc, Hb. reflexivity. Qed.

Lemma eqv_faultfree s1 s2 : st_equiv s1 s2 ->
  calls_left s1 = None /\ bytes_left s1 = None /\ calls_left s2 = None /\ bytes_left s2 = None.
Proof. unfold st_equiv. tauto. Qed.

(* the state after one accepted Write call *)
Definition wr (w : bstr) (s : mstate) : mstate :=
  match bufs s with
  | buf :: rest => set_bufs s ((w :: buf) :: rest)
  | [] => set_out s (w :: out s) None None
  end.

Lemma write_wr s w : calls_left s = None -> bytes_left s = None -> write w s = (Ok tt, wr w s).
Proof. intros Hc Hb. rewrite (write_ok s w Hc Hb). reflexivity. Qed.

Lemma wr_faultfree s w : calls_left s = None -> bytes_left s = None ->
  calls_left (wr w s) = None /\ bytes_left (wr w s) = None.
Proof. intros Hc Hb. unfold wr. destruct (bufs s); eqv_tac; auto. Qed.

Lemma eqv_wr s1 s2 w : st_equiv s1 s2 -> st_equiv (wr w s1) (wr w s2).
Proof.
  intros H. unfold wr. unfold st_equiv in H. decompose [and] H.
  destruct (bufs s1) as [|b1 r1] eqn:E1, (bufs s2) as [|b2 r2] eqn:E2;
    try (match goal with H : Forall2 _ _ _ |- _ => inversion H; fail end).
  - eqv_tac. rewrite E1, E2. repeat split; auto. rewrite !chunks_cons. congruence.
  - eqv_tac. match goal with H : Forall2 _ (_ :: _) (_ :: _) |- _ => inversion H; subst end.
    repeat split; auto. constructor; [rewrite !chunks_cons; congruence | assumption].
Qed.

(* two Write calls against one with the concatenation *)
Lemma wr_app s a c : calls_left s = None -> bytes_left s = None ->
  st_equiv (wr c (wr a s)) (wr (a ++ c) s).
Proof.
  intros Hc Hb. destruct s as [cx md cu tm dp ou bu cl bl ni ub sw]. cbn in Hc, Hb. subst cl bl.
  destruct bu as [|b r]; unfold wr, st_equiv; cbn -[chunks].
  - repeat split; auto. rewrite !chunks_cons, <- app_assoc. reflexivity.
  - repeat split; auto. constructor; [rewrite !chunks_cons, <- app_assoc; reflexivity | apply Forall2_chunks_refl].
Qed.

Lemma eqv_wr_app s1 s2 a c : st_equiv s1 s2 -> st_equiv (wr c (wr a s1)) (wr (a ++ c) s2).
Proof.
  intros H. destruct (eqv_faultfree _ _ H) as [_ [_ [H3 H4]]].
  eapply st_equiv_trans; [apply eqv_wr, eqv_wr, H | apply wr_app; assumption].
Qed.

Lemma eqv_wr_nil s1 s2 : st_equiv s1 s2 -> st_equiv (wr [] s1) s2.
Proof.
  intros H. unfold st_equiv in H. decompose [and] H. unfold wr.
  destruct (bufs s1) as [|b1 r1] eqn:E1, (bufs s2) as [|b2 r2] eqn:E2;
    try (match goal with H : Forall2 _ _ _ |- _ => inversion H; fail end).
  - eqv_tac. rewrite E1, E2. repeat split; auto. rewrite chunks_cons, app_nil_r. assumption.
  - eqv_tac. rewrite E2. match goal with H : Forall2 _ (_ :: _) (_ :: _) |- _ => inversion H; subst end.
    repeat split; auto. constructor; [rewrite chunks_cons, app_nil_r; assumption | assumption].
Qed.

Lemma mrel_write w : mrel (write w) (write w).
Proof.
  intros s1 s2 He. destruct (eqv_faultfree _ _ He) as [H1 [H2 [H3 H4]]].
  rewrite (write_wr s1 w H1 H2), (write_wr s2 w H3 H4). right. split; [reflexivity | apply eqv_wr, He].
Qed.

Lemma mrel_write_app a c : mrel (_ <-- write a ;;; write c) (write (a ++ c)).
Proof.
  intros s1 s2 He. destruct (eqv_faultfree _ _ He) as [H1 [H2 [H3 H4]]].
  unfold mbind. rewrite (write_wr s1 a H1 H2).
  destruct (wr_faultfree s1 a H1 H2) as [H1' H2'].
  rewrite (write_wr _ c H1' H2'), (write_wr s2 _ H3 H4).
  right. split; [reflexivity | apply eqv_wr_app, He].
Qed.

Lemma mrel_app_write a c : mrel (write (a ++ c)) (_ <-- write a ;;; write c).
Proof.
  intros s1 s2 He. destruct (eqv_faultfree _ _ He) as [H1 [H2 [H3 H4]]].
  unfold mbind. rewrite (write_wr s2 a H3 H4).
  destruct (wr_faultfree s2 a H3 H4) as [H3' H4'].
  rewrite (write_wr _ c H3' H4'), (write_wr s1 _ H1 H2).
  right. split; [reflexivity | apply st_equiv_sym, eqv_wr_app, st_equiv_sym, He].
Qed.

Lemma mrel_write_nil_l : mrel (write []) (ret tt).
Proof.
  intros s1 s2 He. destruct (eqv_faultfree _ _ He) as [H1 [H2 _]].
  rewrite (write_wr s1 [] H1 H2). right. split; [reflexivity | apply eqv_wr_nil, He].
Qed.
Lemma mrel_write_nil_r : mrel (ret tt) (write []).
Proof.
  intros s1 s2 He. destruct (eqv_faultfree _ _ He) as [_ [_ [H3 H4]]].
  rewrite (write_wr s2 [] H3 H4). right. split; [reflexivity | apply st_equiv_sym, eqv_wr_nil, st_equiv_sym, He].
Qed.

Lemma mrel_m_set k v : mrel (m_set k v) (m_set k v).
Proof.
  intros s1 s2 He. unfold m_set. rewrite (eqv_ctx _ _ He). destruct (ctx s2) eqn:E.
  - right. split; [reflexivity | exact He].
  - right. split; [reflexivity|]. cbn [snd].
    destruct (sc_top_origin (f :: s)); [apply eqv_set_ctx, eqv_note_shared, He | apply eqv_set_ctx, He].
Qed.
Lemma mrel_m_lookup k : mrel (m_lookup k) (m_lookup k).
Proof.
  intros s1 s2 He. unfold m_lookup. rewrite (eqv_ctx _ _ He). destruct (sc_lookup (ctx s2) k).
  - right. split; [reflexivity | exact He].
  - right. split; [reflexivity | apply eqv_bump_unbound, He].
Qed.
Lemma mrel_m_push : mrel m_push m_push.
Proof. apply mrel_modify. intros s1 s2 He. rewrite (eqv_ctx _ _ He). apply eqv_set_ctx, He. Qed.
Lemma mrel_m_pop : mrel m_pop m_pop.
Proof. apply mrel_modify. intros s1 s2 He. rewrite (eqv_ctx _ _ He). apply eqv_set_ctx, He. Qed.
Lemma mrel_fresh_list l : mrel (fresh_list l) (fresh_list l).
Proof.
  intros s1 s2 He. unfold fresh_list. destruct l.
  - right. split; [reflexivity | exact He].
  - rewrite (eqv_next_id _ _ He). right. split; [reflexivity | apply eqv_bump_id, He].
Qed.
Lemma mrel_fresh_list_or_nil l : mrel (fresh_list_or_nil l) (fresh_list_or_nil l).
Proof.
  intros s1 s2 He. unfold fresh_list_or_nil. destruct l.
  - right. split; [reflexivity | exact He].
  - rewrite (eqv_next_id _ _ He). right. split; [reflexivity | apply eqv_bump_id, He].
Qed.
Lemma mrel_fresh_map m : mrel (fresh_map m) (fresh_map m).
Proof.
  intros s1 s2 He. unfold fresh_map. rewrite (eqv_next_id _ _ He). right. split; [reflexivity | apply eqv_bump_id, He].
Qed.
Lemma mrel_set_cur p1 p2 : mrel (modify (fun st => set_cur st p1)) (modify (fun st => set_cur st p2)).
Proof. apply mrel_modify. intros s1 s2 He. apply eqv_set_cur, He. Qed.

Lemma mrel_write_all ws : mrel (write_all ws) (write_all ws).
Proof. induction ws as [|w r IH]; cbn [write_all]; [apply mrel_ret | apply mrel_bind; [apply mrel_write | intros _; exact IH]]. Qed.

Lemma mrel_ext_l {A} (m1 m1' m2 : M A) : (forall s, m1 s = m1' s) -> mrel m1' m2 -> mrel m1 m2.
Proof. intros H Hm s1 s2 He. rewrite H. apply Hm, He. Qed.
Lemma mrel_ext_r {A} (m1 m2 m2' : M A) : (forall s, m2 s = m2' s) -> mrel m1 m2' -> mrel m1 m2.
Proof. intros H Hm s1 s2 He. rewrite H. apply Hm, He. Qed.

(* a state read that the equivalence preserves *)
Lemma mrel_read {X B} (g : mstate -> X) (f1 f2 : X -> M B) :
  (forall s1 s2, st_equiv s1 s2 -> g s1 = g s2) -> (forall x, mrel (f1 x) (f2 x)) ->
  mrel (st <-- get ;;; f1 (g st)) (st <-- get ;;; f2 (g st)).
Proof. intros Hg Hf. apply mrel_get_bind. intros s1 s2 He. rewrite (Hg _ _ He). apply Hf. Qed.

Lemma mrel_eval (w1 w2 : node -> M value) e1 e2 : mrel (w1 e1) (w2 e2) -> mrel (eval w1 e1) (eval w2 e2).
Proof.
  intros H. unfold eval. apply mrel_get_bind. intros s1 s2 He.
  apply mrel_bind; [exact H|]. intros v. apply mrel_bind; [apply mrel_set_cur | intros _; apply mrel_ret].
Qed.

Lemma eqv_set_bufs s1 s2 b1 b2 :
  Forall2 (fun b1 b2 : list bstr => chunks b1 = chunks b2) b1 b2 -> st_equiv s1 s2 -> st_equiv (set_bufs s1 b1) (set_bufs s2 b2).
Proof. intros Hb H. eqv_tac. tauto. Qed.

Lemma mrel_block (w1 w2 : node -> M value) b1 b2 : mrel (w1 b1) (w2 b2) -> mrel (render_block w1 b1) (render_block w2 b2).
Proof.
  intros H. unfold render_block.
  apply mrel_bind.
  { apply mrel_modify. intros s1 s2 He. apply eqv_set_bufs; [|exact He].
    constructor; [reflexivity | unfold st_equiv in He; tauto]. }
  intros _. apply mrel_bind; [exact H|]. intros _.
  apply mrel_get_bind. intros s1 s2 He.
  assert (Forall2 (fun b1 b2 : list bstr => chunks b1 = chunks b2) (bufs s1) (bufs s2)) as Hb by (unfold st_equiv in He; tauto).
  destruct Hb as [|c1 c2 r1 r2 Hc Hr]; [apply mrel_fail|].
  replace (concat_b (rev c1)) with (concat_b (rev c2)) by (symmetry; exact Hc).
  apply mrel_bind; [|intros _; apply mrel_ret].
  apply mrel_modify. intros t1 t2 Ht. apply eqv_set_bufs; assumption.
Qed.

Lemma mrel_logic : body_logic (@mrel) (fun _ _ => True).
Proof.
  constructor; intros.
  - apply mrel_ret.
  - apply mrel_fail.
  - apply mrel_lift.
  - apply mrel_bind; assumption.
  - apply mrel_write.
  - apply mrel_m_set.
  - apply mrel_m_lookup.
  - apply mrel_fresh_list.
  - apply mrel_fresh_list_or_nil.
  - apply mrel_fresh_map.
  - apply (mrel_read mode); [apply eqv_mode | assumption].
  - apply (mrel_read ctx); [apply eqv_ctx | assumption].
  - apply mrel_bind; [apply mrel_m_push|]. intros _. apply mrel_bind; [assumption|]. intros _.
    apply mrel_bind; [apply mrel_m_pop | intros _; apply mrel_ret].
  - apply mrel_bind; [apply mrel_m_push|]. intros _. apply mrel_bind; [assumption|]. intros _.
    apply mrel_bind; [assumption|]. intros _. apply mrel_bind; [apply mrel_m_pop | intros _; apply mrel_ret].
  - apply mrel_eval. assumption.
  - apply mrel_block. assumption.
Qed.

Lemma mrel_sites : pure_sites_sub (fun _ _ => True).
Proof. constructor; intros; exact I. Qed.

Section Param.
Variable cf : cfg.
Variable okm : N -> list node -> Prop.

Fixpoint okP (n : node) : Prop :=
  match n with
  | NFunc _ _ args => fold_right (fun x a => okP x /\ a) True args
  | NListLit _ items => fold_right (fun x a => okP x /\ a) True items
  | NMapLit _ items => fold_right (fun kv a => okP (snd kv) /\ a) True items
  | NDataRef _ _ access => fold_right (fun x a => okP x /\ a) True access
  | NAccExpr _ _ arg => okP arg
  | NNot _ a | NNeg _ a => okP a
  | NBin _ _ a1 a2 => okP a1 /\ okP a2
  | NTern _ a1 a2 a3 => okP a1 /\ okP a2 /\ okP a3
  | NList _ nodes => fold_right (fun x a => okP x /\ a) True nodes
  | NPrint _ arg dirs => okP arg /\ fold_right (fun x a => okP x /\ a) True dirs
  | NDirective _ _ args => fold_right (fun x a => okP x /\ a) True args
  | NCss _ e _ => match e with Some x => okP x | None => True end
  | NLog _ body => okP body
  | NIf _ conds => fold_right (fun x a => okP x /\ a) True conds
  | NIfCond _ cond body => match cond with Some c => okP c | None => True end /\ okP body
  | NFor _ _ lst body ifempty => okP lst /\ okP body /\ match ifempty with Some x => okP x | None => True end
  | NSwitch _ v cases => okP v /\ fold_right (fun x a => okP x /\ a) True cases
  | NSwitchCase _ values body => fold_right (fun x a => okP x /\ a) True values /\ okP body
  | NCall _ _ _ dat params => match dat with Some d => okP d | None => True end /\ fold_right (fun x a => okP x /\ a) True params
  | NParamValue _ _ v => okP v
  | NParamContent _ _ c => okP c
  | NLetValue _ _ e => okP e
  | NLetContent _ _ body => okP body
  | NMsg _ id _ _ body => okm id body /\ fold_right (fun x a => okP x /\ a) True body
  | NMsgPlaceholder _ _ body => okP body
  | NMsgPlural _ _ v cases dflt =>
      okP v /\ fold_right (fun x a => okP x /\ a) True cases /\ fold_right (fun x a => okP x /\ a) True dflt
  | NMsgPluralCase _ _ body => fold_right (fun x a => okP x /\ a) True body
  | NTemplate _ _ body _ _ => okP body
  | _ => True
  end.

Lemma okP_all l : fold_right (fun x a => okP x /\ a) True l <-> Forall okP l.
Proof.
  induction l as [|x r IH]; cbn [fold_right]; [split; auto|].
  rewrite IH. split; [intros [? ?]; constructor; auto | inversion 1; auto].
Qed.

Lemma okP_all_kv (l : list (bstr * node)) :
  fold_right (fun kv a => okP (snd kv) /\ a) True l -> Forall (fun kv => okP (snd kv)) l.
Proof. induction l as [|x r IH]; cbn [fold_right]; [constructor|]. intros [? ?]. constructor; auto. Qed.

Hypothesis Hokm0 : forall body, okm 0 body.
Hypothesis Hreg : Forall (fun t => okP (t_node t)) (r_templates (c_reg cf)).

(* [okP] passes from a node to the nodes one unfolding of the walker hands to [w] *)
Ltac okP_parts H :=
  cbn [okP] in H; repeat match goal with Hx : _ /\ _ |- _ => destruct Hx end;
  repeat first [ assumption | apply Forall_nil | apply Forall_cons | (apply okP_all; assumption) ].

Lemma okP_flat_map (f : node -> list node) l :
  (forall a, okP a -> Forall okP (f a)) -> fold_right (fun x a => okP x /\ a) True l -> Forall okP (flat_map f l).
Proof. intros Hf H. apply Forall_flat_map. eapply Forall_impl; [exact Hf | apply okP_all, H]. Qed.

Lemma okP_acc_subs a : okP a -> Forall okP (acc_subs a).
Proof. intros H. destruct a; cbn [acc_subs]; okP_parts H. Qed.
Lemma okP_dir_subs d : okP d -> Forall okP (dir_subs d).
Proof. intros H. destruct d; cbn [dir_subs]; okP_parts H. Qed.
Lemma okP_cond_subs c : okP c -> Forall okP (cond_subs c).
Proof. intros H. destruct c; cbn [cond_subs]; try apply Forall_nil. destruct cond; cbn [opt_list app]; okP_parts H. Qed.
Lemma okP_case_subs c : okP c -> Forall okP (case_subs c).
Proof. intros H. destruct c; cbn [case_subs]; try apply Forall_nil. apply Forall_app. split; okP_parts H. Qed.
Lemma okP_param_subs p : okP p -> Forall okP (param_subs p).
Proof. intros H. destruct p; cbn [param_subs]; okP_parts H. Qed.
Lemma okP_plural_msg mp l : fold_right (fun x a => okP x /\ a) True l -> okP (NMsg mp 0 [] [] l).
Proof. intros H. split; [apply Hokm0 | exact H]. Qed.
Lemma okP_plural_case_subs mp c : okP c -> Forall okP (plural_case_subs mp c).
Proof. intros H. destruct c; cbn [plural_case_subs]; okP_parts H. apply okP_plural_msg. assumption. Qed.
Lemma okP_msg_subs mp x : okP x -> Forall okP (msg_subs mp x).
Proof.
  intros H. destruct x; cbn [msg_subs]; okP_parts H.
  - apply okP_plural_msg. assumption.
  - apply okP_flat_map; [apply okP_plural_case_subs | assumption].
Qed.

Lemma okP_subnodes n : okP n -> Forall okP (subnodes n).
Proof.
  intros H. destruct n; cbn [subnodes]; try apply Forall_nil; try solve [okP_parts H]; cbn [okP] in H.
  - (* NMapLit *) apply Forall_map, okP_all_kv, H.
  - (* NDataRef *) apply okP_flat_map; [apply okP_acc_subs | exact H].
  - (* NPrint *) apply Forall_cons; [apply H|]. apply okP_flat_map; [apply okP_dir_subs | apply H].
  - (* NCss *) destruct expr; cbn [opt_list]; okP_parts H.
  - (* NIf *) apply okP_flat_map; [apply okP_cond_subs | exact H].
  - (* NFor *) destruct ifempty; cbn [opt_list]; okP_parts H.
  - (* NSwitch *) apply Forall_cons; [apply H|]. apply okP_flat_map; [apply okP_case_subs | apply H].
  - (* NCall *) apply Forall_app. split; [destruct data; cbn [opt_list]; okP_parts H|].
    apply okP_flat_map; [apply okP_param_subs | apply H].
  - (* NMsg *) apply okP_flat_map; [apply okP_msg_subs | apply H].
Qed.

Variables w1 w2 : node -> M value.
Hypothesis Hw : forall n, okP n -> mrel (w1 n) (w2 n).

Lemma eval_rel e : okP e -> mrel (eval w1 e) (eval w2 e).
Proof. intros H. apply mrel_eval, Hw, H. Qed.

Lemma msg_body_rel mp ns : Forall okP ns -> mrel (msg_body w1 mp ns) (msg_body w2 mp ns).
Proof.
  intros H. apply (bphi_msg_body _ _ mrel_logic).
  eapply Forall_impl; [|exact H]. intros x Hx. eapply Forall_impl; [exact Hw | exact (okP_msg_subs mp x Hx)].
Qed.

Lemma call_enter_rel callee cd : okP (t_node callee) -> mrel (call_enter w1 callee cd) (call_enter w2 callee cd).
Proof.
  intros Hc. unfold call_enter. apply mrel_get_bind. intros s1 s2 He.
  rewrite (eqv_ctx _ _ He), (eqv_mode _ _ He), (eqv_depth _ _ He).
  apply mrel_bind.
  { apply mrel_modify. intros t1 t2 Ht. apply eqv_set_depth, eqv_set_mode, eqv_set_ctx, Ht. }
  intros _ t1 t2 Ht. specialize (Hw _ Hc t1 t2 Ht). unfold res_rel in *.
  destruct (w1 (t_node callee) t1) as [r1 u1], (w2 (t_node callee) t2) as [r2 u2]. cbn [fst snd] in *.
  destruct Hw as [-> | [-> Hu]]; [left; reflexivity|].
  right. destruct r2; cbn [fst snd]; (split; [reflexivity | apply eqv_set_depth, eqv_set_mode, eqv_set_ctx, Hu]).
Qed.

Lemma find_template_okP name callee : find_template (r_templates (c_reg cf)) name = Some callee -> okP (t_node callee).
Proof.
  intros E. induction (r_templates (c_reg cf)) as [|t r IH]; cbn [find_template] in E; [discriminate|].
  inversion Hreg; subst. destruct (bstr_eqb (t_name t) name); [injection E as <-; assumption | auto].
Qed.

Theorem walk_body_rel n : okP n -> mrel (walk_body cf w1 n) (walk_body cf w2 n).
Proof.
  intros H. apply (bphi_walk_body cf _ _ mrel_logic mrel_sites).
  - apply mrel_set_cur.
  - intros. apply mrel_modify. intros s1 s2 He. rewrite (eqv_mode _ _ He). apply eqv_set_mode, He.
  - eapply Forall_impl; [exact Hw | exact (okP_subnodes n H)].
  - intros callee cd Hc. apply call_enter_rel. destruct n; try discriminate Hc. exact (find_template_okP _ _ Hc).
Qed.
End Param.

Lemma mbind_assoc_pt {A B C} (m : M A) (f : A -> M B) (g : B -> M C) s :
  mbind (mbind m f) g s = mbind m (fun x => mbind (f x) g) s.
Proof. unfold mbind. destruct (m s) as [[x| | | | |] s']; reflexivity. Qed.

Lemma mbind_ret_l_pt {A B} (x : A) (f : A -> M B) s : mbind (ret x) f s = f x s.
Proof. reflexivity. Qed.

Lemma mbind_ret_r_pt (m : M unit) s : mbind m (fun _ => ret tt) s = m s.
Proof. unfold mbind, ret. destruct (m s) as [[[]| | | | |] s']; reflexivity. Qed.

(* a left computation that only refines "nothing happens" can be dropped *)
Lemma mrel_bind_l_unit {A B} (m1 : M A) (k1 : A -> M B) (k2 : M B) :
  (forall s1 s2, st_equiv s1 s2 -> fst (m1 s1) = OutOfFuel \/ (exists x, fst (m1 s1) = Ok x) /\ st_equiv (snd (m1 s1)) s2) ->
  (forall x, mrel (k1 x) k2) -> mrel (mbind m1 k1) k2.
Proof.
  intros Hm Hk s1 s2 He. unfold mbind. specialize (Hm s1 s2 He).
  destruct (m1 s1) as [r1 t1]. cbn [fst snd] in Hm.
  destruct Hm as [-> | [[x ->] Ht]]; [left; reflexivity | apply Hk, Ht].
Qed.
Lemma mrel_bind_r_unit {A B} (m2 : M A) (k1 : M B) (k2 : A -> M B) :
  (forall s1 s2, st_equiv s1 s2 -> (exists x, fst (m2 s2) = Ok x) /\ st_equiv s1 (snd (m2 s2))) ->
  (forall x, mrel k1 (k2 x)) -> mrel k1 (mbind m2 k2).
Proof.
  intros Hm Hk s1 s2 He. unfold mbind. specialize (Hm s1 s2 He).
  destruct (m2 s2) as [r2 t2]. cbn [fst snd] in Hm.
  destruct Hm as [[x ->] Ht]. apply Hk, Ht.
Qed.

Lemma eqv_set_cur_l s1 s2 p : st_equiv s1 s2 -> st_equiv (set_cur s1 p) s2.
Proof. intros H. eqv_tac. tauto. Qed.
Lemma eqv_set_cur_r s1 s2 p : st_equiv s1 s2 -> st_equiv s1 (set_cur s2 p).
Proof. intros H. eqv_tac. tauto. Qed.

Lemma mrel_set_cur_l {A} p (m1 m2 : M A) : mrel m1 m2 -> mrel (_ <-- modify (fun st => set_cur st p) ;;; m1) m2.
Proof.
  intros H. apply mrel_bind_l_unit; [|intros _; exact H].
  intros s1 s2 He. right. split; [exists tt; reflexivity | apply eqv_set_cur_l, He].
Qed.
Lemma mrel_set_cur_r {A} p (m1 m2 : M A) : mrel m1 m2 -> mrel m1 (_ <-- modify (fun st => set_cur st p) ;;; m2).
Proof.
  intros H. apply mrel_bind_r_unit; [|intros _; exact H].
  intros s1 s2 He. split; [exists tt; reflexivity | apply eqv_set_cur_r, He].
Qed.
