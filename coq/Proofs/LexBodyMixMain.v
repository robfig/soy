(* C15, scanner half for bodies in which comments and tags mix: the items lex() sends for
   T0 {c1} T1 {c2} T2 ... with comments in the stretches, described by ONE item grammar ([mshape]: per stretch
   the items of its pieces and comments -- [pshape] --, per command its tag items -- [tagitems] --, EOF last).
   [shape] (Proofs/LexBodyTop.v) is the instance without tags. *)
From Soy Require Import Model.Bytes Model.Utf8 Model.Outcome Model.Token Generated.Tables Model.Lexer Spec.Text Spec.TextBody Spec.TextMix
  Proofs.LexerPrim Proofs.LexerStates Proofs.LexerProofs Proofs.LexTokens Proofs.LexPrintTop
  Proofs.LexBodyText Proofs.LexBodyTop Proofs.LexBodySeg Proofs.LexBodyCmd Proofs.LexBodyLit Proofs.LexBodyMix.
From Coq Require Import ZifyBool Lia.
Open Scope Z_scope.

(* the items of one stretch cut into the pieces [x1; ...; xn] by n-1 comments: per piece its text item (none
   when the piece is empty or white space with a line break; before a "//" comment the white-space byte in front
   of the comment belongs to neither item), then the comment item; nothing after the last piece *)
Inductive pshape : list bstr -> list tok -> Prop :=
| ps_last x txt : is_text_of x txt -> pshape [x] txt
| ps_more x x' txt c rest items :
    is_text_of x' txt -> (x = x' \/ exists b, ws b = true /\ x = x' ++ [b]) -> t_typ c = itemComment ->
    pshape rest items -> pshape (x :: rest) (txt ++ c :: items).

(* the items of a special-character command / of a literal block whose text is [o] *)
Inductive tagitems : bstr -> list tok -> Prop :=
| ti_cmd o ld c rd :
    t_typ ld = itemLeftDelim -> assoc (t_typ c) parser_special_chars = Some o -> t_typ rd = itemRightDelim ->
    tagitems o [ld; c; rd]
| ti_lit o ld kw rd tx ld2 ke rd2 :
    t_typ ld = itemLeftDelim -> t_typ kw = itemLiteral -> t_typ rd = itemRightDelim ->
    t_typ tx = itemText -> t_val tx = o -> t_typ ld2 = itemLeftDelim -> t_typ ke = itemLiteralEnd -> t_typ rd2 = itemRightDelim ->
    tagitems o [ld; kw; rd; tx; ld2; ke; rd2].

(* a body: the pieces of the first stretch, then per command its text and the pieces of the stretch after it *)
Inductive mshape : list bstr -> list (bstr * list bstr) -> list tok -> Prop :=
| ms_end pcs its e : pshape pcs its -> t_typ e = itemEOF -> mshape pcs [] (its ++ [e])
| ms_tag pcs its o tg pcs' rest items :
    pshape pcs its -> tagitems o tg -> mshape pcs' rest items -> mshape pcs ((o, pcs') :: rest) (its ++ tg ++ items).

Section MixMain.
Variable uni_letter uni_digit : Z -> bool.
Hypothesis letter_ascii : forall c, (c < 128)%N -> uni_letter (Z.of_N c) = ((65 <=? c) && (c <=? 90) || (97 <=? c) && (c <=? 122))%N.
Hypothesis digit_ascii : forall c, (c < 128)%N -> uni_digit (Z.of_N c) = digit_b c.
Hypothesis letter_eof : uni_letter (-1) = false.
Hypothesis digit_eof : uni_digit (-1) = false.
Variable inp : bstr.
Notation steps := (steps uni_letter uni_digit inp 0).
Notation span := (span inp).
Notation ilen := (Z.of_nat (length inp)).

(* one stretch: lexText and the comment states, up to the tag that follows or the end of the input *)
Theorem lex_stretch : forall n T, (length T <= n)%nat -> forall l pcs tl,
  span l [] (T ++ tl) -> plain T -> tag_or_end tl ->
  pieces MText (pwof 0 l) [] T = Some pcs -> (tl <> [] -> line_open MText (pwof 0 l) T = false) ->
  exists k l' its st', steps k LText l = Ok (st', l') /\ pshape pcs its /\ l_dd l' = l_dd l /\
    ((tl = [] /\ st' = LDone /\ exists e, t_typ e = itemEOF /\ l_out l' = e :: rev its ++ l_out l) \/
     (tl <> [] /\ st' = LLeftDelim /\ l_out l' = rev its ++ l_out l /\ span l' [] tl)).
Proof using letter_ascii digit_ascii letter_eof digit_eof. (* the section's hypotheses, like the lemmas around it *)
  intros _ T _ l pcs tl Hs Hpl Htl Hpc Hlo.
  exact (lex_stretch_gen uni_letter uni_digit inp tl Htl pshape ps_last ps_more pcs T l Hs Hpl (conj Hpc Hlo)).
Qed.

(* a special-character command or a literal block, from lexLeftDelim at its "{" to the lexText behind its "}" *)
Lemma lex_cmd_tag l n o rest : cmd_ok (n, o) -> span l [] ([123%N] ++ n ++ [125%N] ++ rest) ->
  exists k l' tg, steps k LLeftDelim l = Ok (LText, l') /\ span l' [] rest /\ l_out l' = rev tg ++ l_out l /\
    tagitems o tg /\ pwof 0 l' = false /\ l_dd l' = false.
Proof.
  intros [Hcmd|(sp & Hsp & Hname & Hcl)] Hs.
  - destruct (lex_special_cmd uni_letter uni_digit letter_ascii digit_ascii letter_eof digit_eof inp l n o rest Hcmd Hs)
      as (k & l' & ld & c & rd & Hst & Hs' & Ho & Hld & Hrd & Hc & Hla & Hv & Hdd).
    exists k, l', [ld; c; rd]. split; [exact Hst|]. split; [exact Hs'|]. split; [exact Ho|]. split; [apply ti_cmd; assumption|].
    split; [unfold pwof; rewrite Hla, Hv; reflexivity|exact Hdd].
  - cbn [fst snd] in Hname, Hcl. subst n.
    destruct (lex_literal_cmd uni_letter uni_digit letter_ascii digit_ascii letter_eof digit_eof inp l sp o rest Hsp Hs Hcl)
      as (k & l' & ld & kw & rd & tx & ld2 & ke & rd2 & Hst & Hs' & Ho & A1 & A2 & A3 & A4 & A5 & A6 & A7 & A8 & Hla & Hv & Hdd).
    exists k, l', [ld; kw; rd; tx; ld2; ke; rd2]. split; [exact Hst|]. split; [exact Hs'|]. split; [exact Ho|].
    split; [apply ti_lit; assumption|]. split; [unfold pwof; rewrite Hla, Hv; reflexivity|exact Hdd].
Qed.

(* the Spec's conditions on the stretches after the first, with their pieces made explicit *)
Fixpoint rest_pieces (r : list seg) (rp : list (bstr * list bstr)) : Prop :=
  match r, rp with
  | [], [] => True
  | ((_, o), T) :: r', (o', pcs) :: rp' => o' = o /\ pieces MText false [] T = Some pcs /\ rest_pieces r' rp'
  | _, _ => False
  end.

Lemma lex_mix_run : forall rest rp T pcs l, span l [] (T ++ rest_src rest) -> l_dd l = false ->
  mix_stretch_ok (pwof 0 l) (match rest with [] => true | _ => false end) T -> pieces MText (pwof 0 l) [] T = Some pcs ->
  mix_rest_ok rest -> rest_pieces rest rp ->
  exists k l' items, steps k LText l = Ok (LDone, l') /\ l_out l' = rev items ++ l_out l /\ mshape pcs rp items.
Proof.
  induction rest as [|[[n o] T'] r IH]; intros rp T pcs l Hs Hdd [Hpl Hop] Hpc Hrest Hrp.
  - destruct rp; [|contradiction]. cbn [rest_src] in Hs.
    destruct (lex_stretch (length T) T (le_n _) l pcs [] Hs Hpl (or_introl eq_refl) Hpc ltac:(congruence))
      as (k & l' & its & st' & Hst & Hsh & _ & Hend).
    destruct Hend as [(_ & -> & e & He & Ho)|(A & _)]; [|congruence].
    exists k, l', (its ++ [e]). split; [exact Hst|]. split; [rewrite Ho, rev_app_distr; reflexivity|]. apply ms_end; assumption.
  - destruct rp as [|[o' pcs'] rp']; [contradiction|]. cbn [rest_pieces] in Hrp. destruct Hrp as (-> & Hpc' & Hrp').
    cbn [mix_rest_ok] in Hrest. destruct Hrest as (Hcmd & Hok' & Hrest').
    destruct (lex_stretch (length T) T (le_n _) l pcs (rest_src (((n, o), T') :: r)) Hs Hpl (rest_src_tag _) Hpc ltac:(intros _; apply Hop; reflexivity))
      as (k1 & l1 & its & st' & Hst1 & Hsh1 & Hdd1 & Hend).
    destruct Hend as [(A & _)|(_ & -> & Ho1 & Hs1)]; [discriminate A|].
    cbn [rest_src] in Hs1.
    destruct (lex_cmd_tag l1 n o _ Hcmd Hs1) as (k2 & l2 & tg & Hst2 & Hs2 & Ho2 & Htg & Hpw & Hdd2).
    destruct (IH rp' T' pcs' l2 Hs2 Hdd2 ltac:(rewrite Hpw; exact Hok') ltac:(rewrite Hpw; exact Hpc') Hrest' Hrp') as (k3 & l3 & items & Hst3 & Ho3 & Hsh).
    exists (k1 + (k2 + k3))%nat, l3, (its ++ tg ++ items).
    split; [rewrite (steps_app _ _ _ _ k1 _ _ _ _ _ Hst1), (steps_app _ _ _ _ k2 _ _ _ _ _ Hst2); exact Hst3|].
    split; [rewrite Ho3, Ho2, Ho1, !rev_app_distr, <- !app_assoc; reflexivity|exact (ms_tag _ _ _ _ _ _ _ Hsh1 Htg Hsh)].
Qed.

End MixMain.

(* lex(name, body_src T0 rest) *)
Theorem lex_body_mix (uni_letter uni_digit : Z -> bool) :
  (forall c, (c < 128)%N -> uni_letter (Z.of_N c) = ((65 <=? c) && (c <=? 90) || (97 <=? c) && (c <=? 122))%N) ->
  (forall c, (c < 128)%N -> uni_digit (Z.of_N c) = digit_b c) ->
  uni_letter (-1) = false -> uni_digit (-1) = false ->
  forall T0 rest pcs rp, mix_body_ok T0 rest -> pieces MText true [] T0 = Some pcs -> rest_pieces rest rp ->
  exists items, lex_items uni_letter uni_digit (lex_budget (body_src T0 rest)) false (body_src T0 rest) = Ok items /\ mshape pcs rp items.
Proof.
  intros Hla Hda Hle Hde T0 rest pcs rp [Hok Hrest] Hpc Hrp. set (txt := body_src T0 rest).
  destruct (lex_mix_run uni_letter uni_digit Hla Hda Hle Hde txt rest rp T0 pcs lex_init (span_init txt) eq_refl Hok Hpc Hrest Hrp) as (k & l' & items & Hst & Ho & Hsh).
  exists items. split; [exact (lex_file_items_steps uni_letter uni_digit Hle Hde txt k l' items Hst Ho)|exact Hsh].
Qed.
