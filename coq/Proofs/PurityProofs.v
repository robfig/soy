(* C08: rendering is pure.  (1) every [set] of a render lands on a frame the
   render allocated itself ([walk_no_shared_writes], an instance of the
   invariant principle of Proofs/InterpLogic.v with I = "the top frame is fresh
   and nothing shared was written", R = "the frame origins of the scope stack
   are unchanged"); (2) the repaired evalPrint leaves every PrintNode as it was
   ([map_prints_id]); hence a render leaves the shared store unchanged and the
   output of a render does not depend on the renders before it. *)
From Soy Require Import Model.Bytes Model.Num Model.Values Model.Outcome Model.Ast
  Model.Escape Model.Directives Model.Print Generated.Tables Model.Interp Model.History Proofs.InterpLogic.
Require Import Lia.
Open Scope N_scope.

(* (1) no shared writes *)

Definition origins (c : scope) : list origin := map f_origin c.
Definition top_fresh (c : scope) : Prop :=
  match c with f :: _ => f_origin f = OFresh | [] => True end.

Definition pure_inv (st : mstate) : Prop := shared_writes st = [] /\ top_fresh (ctx st).
Definition same_origins (a b : mstate) : Prop := origins (ctx a) = origins (ctx b).
Definition still_pure (_ b : mstate) : Prop := shared_writes b = [].

Lemma write_keeps w st r st' : write w st = (r, st') -> ctx st' = ctx st /\ shared_writes st' = shared_writes st.
Proof. intros H. apply write_inv in H. inversion H; subst; split; reflexivity. Qed.

Lemma origins_sc_set c k v : origins (sc_set c k v) = origins c.
Proof. destruct c as [|f r]; reflexivity. Qed.

Lemma top_fresh_origins a b : origins a = origins b -> top_fresh a -> top_fresh b.
Proof.
  destruct a as [|f r], b as [|g s]; cbn; intros H Ht; try discriminate; try exact Logic.I.
  inversion H. congruence.
Qed.

Lemma purity_conditions : inv_conditions pure_inv same_origins still_pure (fun _ => True).
Proof.
  constructor; unfold pure_inv, same_origins, still_pure.
  - reflexivity.
  - intros a b c H1 H2. congruence.
  - intros st [H _]. exact H.
  - intros a b c _ H. exact H.
  - intros; exact Logic.I.
  - intros st p H. split; [exact H | reflexivity].
  - intros st ae H. split; [exact H | reflexivity].
  - intros w st st' [Hs Ht] Hw. destruct (write_keeps _ _ _ _ Hw) as [Hc Hsw].
    rewrite Hc, Hsw. split; [split; assumption | reflexivity].
  - intros w st st' [Hs Ht] Hw. destruct (write_keeps _ _ _ _ Hw) as [Hc Hsw]. congruence.
  - intros k v st st' [Hs Ht] Hm. rewrite m_set_eq in Hm.
    destruct (ctx st) as [|f r] eqn:Hc; [discriminate|]. cbn in Ht. rewrite Ht in Hm.
    inversion Hm; subst st'. cbn.
    split; [split; [exact Hs | exact Ht] | reflexivity].
  - intros st H. split; [exact H | reflexivity].
  - intros st H. split; [exact H | reflexivity].
  - intros st [Hs _]. split; [exact Hs | reflexivity].
  - intros st st2 [Hs Ht] [Hs2 Ht2] HR. cbn [pushed popped ctx set_ctx shared_writes] in *.
    assert (Ho : origins (sc_pop (ctx st2)) = origins (ctx st)).
    { unfold sc_push in HR. destruct (ctx st2) as [|g s]; [discriminate|]. cbn in HR |- *. inversion HR. reflexivity. }
    split; [split; [exact Hs2 | eapply top_fresh_origins; [symmetry; exact Ho | exact Ht]] | symmetry; exact Ho].
  - intros st st2 _ H. exact H.
  - intros st H. exact H.
  - intros st st2 buf rest [Hs Ht] [Hs2 Ht2] HR _. cbn [buf_pushed ctx set_bufs shared_writes] in *.
    split; [split; assumption | exact HR].
  - intros st st2 _ [Hs2 _] _ _. exact Hs2.
  - intros st st2 _ H. exact H.
  - intros st callee cd [Hs _]. split; [exact Hs|]. cbn. destruct cd; reflexivity.
  - intros st callee cd st2 [Hs Ht] [Hs2 _] _. split; [split; [exact Hs2 | exact Ht] | reflexivity].
  - intros st callee cd st2 _ H. exact H.
Qed.

(* for every node, fuel and state: a walk started with a fresh top frame and a clean record ends
   with a clean record, whatever the outcome *)
Theorem walk_no_shared_writes cf fuel n st r st' :
  pure_inv st -> walk cf fuel n st = (r, st') -> shared_writes st' = [].
Proof.
  intros Hi H.
  pose proof (inv_walk _ _ _ _ purity_conditions cf pure_sites_any fuel n st r st' Hi H) as H1.
  destruct (classify r); [destruct H1 as [[Hs _] _]; exact Hs | destruct H1 as [Hs _]; exact Hs].
Qed.

Lemma render_with_no_shared_writes wk cf name id data cl bl fid :
  (forall t st r st', pure_inv st -> wk t st = (r, st') -> shared_writes st' = []) ->
  rr_shared_writes (render_with wk cf name id data cl bl fid) = [].
Proof.
  intros Hwk. unfold render_with. destruct (find_template _ name) as [t|]; [|reflexivity].
  destruct (wk t _) as [r st] eqn:Hw. rewrite finish_shared.
  eapply Hwk; [|exact Hw]. split; reflexivity.
Qed.

Theorem render_no_shared_writes cf fuel name id data cl bl fid :
  rr_shared_writes (render cf fuel name id data cl bl fid) = [].
Proof. rewrite render_eq. apply render_with_no_shared_writes. intros t. apply walk_no_shared_writes. Qed.

(* the parameters of a call are set (by plain [sc_set], outside the record) on a frame that
   [call_data] has just allocated *)
Lemma call_data_top_fresh w alldata dat st cd st' :
  call_data w alldata dat st = (Ok cd, st') -> cd <> [] /\ top_fresh cd.
Proof.
  unfold call_data. intros H. change ((caller <-- get ;;; _) st) with
    ((if alldata
      then match sc_alldata (ctx st) with Some s => ret (sc_push s) | None => fail e_impossible end
      else match dat with
           | Some e => dv <-- eval w e ;;; match dv with VMap id m => ret (sc_push (new_scope id m)) | _ => fail e_notmap end
           | None => ret [fresh_frame]
           end) st) in H.
  destruct alldata.
  - destruct (sc_alldata (ctx st)); inversion H; subst. split; [discriminate | reflexivity].
  - destruct dat as [e|].
    + apply mbind_inv in H. destruct H as [(x & st1 & _ & H) | (e0 & _ & H)].
      * destruct x; inversion H; subst. split; [discriminate | reflexivity].
      * destruct e0; discriminate.
    + inversion H; subst. split; [discriminate | reflexivity].
Qed.

Lemma call_params_top_fresh w ps : forall cd st cd' st',
  call_params w ps cd st = (Ok cd', st') -> cd <> [] /\ top_fresh cd -> cd' <> [] /\ top_fresh cd'.
Proof.
  induction ps as [|p r IH]; intros cd st cd' st' H Hc; cbn [call_params] in H.
  - inversion H; subst. exact Hc.
  - assert (Hset : forall k x, sc_set cd k x <> [] /\ top_fresh (sc_set cd k x)).
    { intros k x. destruct cd as [|f s]; [destruct Hc as [Hc _]; contradiction|]. cbn. split; [discriminate | apply Hc]. }
    destruct p; try discriminate.
    + apply mbind_inv in H. destruct H as [(x & st1 & _ & H) | (e0 & _ & H)]; [|destruct e0; discriminate].
      eapply IH; [exact H | apply Hset].
    + apply mbind_inv in H. destruct H as [(x & st1 & _ & H) | (e0 & _ & H)]; [|destruct e0; discriminate].
      eapply IH; [exact H | apply Hset].
Qed.

(* (2) the repaired evalPrint leaves every node as it was *)

Lemma map_id_in {A} (f : A -> A) (l : list A) : (forall x, In x l -> f x = x) -> map f l = l.
Proof. induction l as [|a l IH]; cbn; intros H; [reflexivity|]. rewrite H, IH; auto. Qed.

Section MapPrintsId.
Variable f : N -> list node -> list node.
Hypothesis Hf : forall p d, f p d = d.
(* the children lists: [map (map_prints f) l = l], with [rec] the structural recursion of the proof itself *)
Ltac map_id rec l := induction l as [|a l' IHl]; cbn; [reflexivity | f_equal; [apply rec | exact IHl]].
Fixpoint map_prints_fid (n : node) : map_prints f n = n.
Proof.
  destruct n; cbn [map_prints]; try reflexivity.
  - (* NFunc *) f_equal. map_id map_prints_fid args.
  - (* NListLit *) f_equal. map_id map_prints_fid items.
  - (* NMapLit *) f_equal. induction items as [|[k a] l IHl]; cbn; [reflexivity|]. f_equal; [f_equal; apply map_prints_fid | exact IHl].
  - (* NDataRef *) f_equal. map_id map_prints_fid access.
  - (* NAccExpr *) f_equal. apply map_prints_fid.
  - f_equal. apply map_prints_fid.
  - f_equal. apply map_prints_fid.
  - f_equal; apply map_prints_fid.
  - f_equal; apply map_prints_fid.
  - (* NList *) f_equal. map_id map_prints_fid nodes.
  - (* NPrint *) rewrite Hf. f_equal; [apply map_prints_fid|].
    map_id map_prints_fid dirs.
  - (* NDirective *) f_equal. map_id map_prints_fid args.
  - (* NCss *) f_equal. destruct expr; cbn; [f_equal; apply map_prints_fid | reflexivity].
  - f_equal. apply map_prints_fid.
  - (* NIf *) f_equal. map_id map_prints_fid conds.
  - (* NIfCond *) f_equal; [destruct cond; cbn; [f_equal; apply map_prints_fid | reflexivity] | apply map_prints_fid].
  - (* NFor *) f_equal; try apply map_prints_fid. destruct ifempty; cbn; [f_equal; apply map_prints_fid | reflexivity].
  - (* NSwitch *) f_equal; [apply map_prints_fid|].
    map_id map_prints_fid cases.
  - (* NSwitchCase *) f_equal; [|apply map_prints_fid].
    map_id map_prints_fid values.
  - (* NCall *) f_equal; [destruct data; cbn; [f_equal; apply map_prints_fid | reflexivity]|].
    map_id map_prints_fid params.
  - f_equal. apply map_prints_fid.
  - f_equal. apply map_prints_fid.
  - f_equal. apply map_prints_fid.
  - f_equal. apply map_prints_fid.
  - (* NMsg *) f_equal. map_id map_prints_fid body.
  - f_equal. apply map_prints_fid.
  - (* NMsgPlural *) f_equal; [apply map_prints_fid | |].
    + map_id map_prints_fid cases.
    + map_id map_prints_fid default.
  - (* NMsgPluralCase *) f_equal. map_id map_prints_fid body.
  - f_equal. apply map_prints_fid.
  - (* NSoyDoc *) f_equal. map_id map_prints_fid params.
  - (* NHeaderParam *) f_equal. destruct default; cbn; [f_equal; apply map_prints_fid | reflexivity].
Qed.
End MapPrintsId.

Lemma map_prints_id n : map_prints (fun _ d => d) n = n.
Proof. apply map_prints_fid. reflexivity. Qed.

Lemma iter_id {A} n (x : A) : Nat.iter n (fun d => d) x = x.
Proof. induction n as [|n IH]; cbn; [reflexivity | exact IH]. Qed.

Lemma dirs_after_print_repaired oblig p dirs : dirs_after_print Repaired oblig p dirs = dirs.
Proof. reflexivity. Qed.

Lemma map_registry_id g r : (forall n, g n = n) -> map_registry g r = r.
Proof.
  intros Hg. destruct r as [ts ss fs]. unfold map_registry. cbn. f_equal.
  apply map_id_in. intros [nm nd ns ae ps fl] _. unfold map_template. cbn. rewrite Hg. reflexivity.
Qed.

(* (3) a render of the repaired code leaves the shared store exactly as it found it.  The history machine of
   Model/History.v is taken over any render function [rin], so that the extended render (Proofs/InterpExtProofs.v)
   is covered by the same lemmas. *)
Definition repaired (wd : world) : Prop := w_variant wd = Repaired.

Section Machine.
Variable wd : world.
Variable rin : shared -> request -> render_result.

Fixpoint run_with (sh : shared) (h : list request) : list render_result * shared :=
  match h with
  | [] => ([], sh)
  | rq :: rest => let '(rs, sh2) := run_with (shared_after wd sh rq (rin sh rq)) rest in (rin sh rq :: rs, sh2)
  end.

Lemma run_with_app sh h1 h2 :
  fst (run_with sh (h1 ++ h2)) = fst (run_with sh h1) ++ fst (run_with (snd (run_with sh h1)) h2).
Proof.
  revert sh. induction h1 as [|rq rest IH]; intros sh; cbn [run_with app]; [reflexivity|].
  specialize (IH (shared_after wd sh rq (rin sh rq))).
  destruct (run_with _ (rest ++ h2)) as [rs sh2]. destruct (run_with _ rest) as [rs' sh2'].
  cbn [fst snd] in *. rewrite IH. reflexivity.
Qed.

Hypothesis Hv : repaired wd.
Hypothesis Hclean : forall sh rq, rr_shared_writes (rin sh rq) = [].

Lemma shared_after_id sh rq : shared_after wd sh rq (rin sh rq) = sh.
Proof.
  unfold shared_after. destruct sh as [reg heap]. cbn [sh_reg sh_heap]. f_equal.
  - apply map_registry_id. intros n. apply map_prints_fid. intros p d. rewrite Hv.
    change (dirs_after_print Repaired (w_oblig wd) p) with (fun d : list node => d). apply iter_id.
  - rewrite Hclean. apply map_id_in. intros e _. reflexivity.
Qed.

(* each result along a history is the result of that request alone, and the store is as at the start *)
Lemma run_with_eq sh h : run_with sh h = (map (rin sh) h, sh).
Proof.
  induction h as [|rq rest IH]; cbn [run_with map]; [reflexivity|]. rewrite shared_after_id, IH. reflexivity.
Qed.
End Machine.

Lemma run_history_with wd sh h : run_history wd sh h = run_with wd (render_in wd) sh h.
Proof.
  revert sh. induction h as [|rq rest IH]; intros sh; [reflexivity|].
  cbn [run_history run_with]. unfold step. rewrite IH. reflexivity.
Qed.

Theorem shared_preserved wd sh rq : repaired wd -> snd (step wd sh rq) = sh.
Proof. intros Hv. apply (shared_after_id wd (render_in wd) Hv). intros. apply render_no_shared_writes. Qed.

(* the result of a render -- outcome, every Write call, error position, counters -- is the same
   after any history of renders (succeeding, failing, against failing writers) as alone *)
Theorem history_pointwise wd sh h : repaired wd -> fst (run_history wd sh h) = map (render_in wd sh) h.
Proof.
  intros Hv. rewrite run_history_with, (run_with_eq wd (render_in wd) Hv); [reflexivity|].
  intros. apply render_no_shared_writes.
Qed.

Theorem history_independent_l wd sh h rq :
  repaired wd ->
  fst (run_history wd sh (h ++ [rq])) = fst (run_history wd sh h) ++ [render_in wd sh rq].
Proof. intros Hv. rewrite !(history_pointwise wd sh _ Hv). apply map_app. Qed.

(* the pinned evalPrint: with an obligatory directive the second render applies it twice *)
Definition wit_name := Eval vm_compute in b "ns.t".
Definition wit_x := Eval vm_compute in b "x".
Definition wit_reg : registry :=
  {| r_templates := [{| t_name := wit_name;
                        t_node := NTemplate 0 wit_name (NList 0 [NPrint 4 (NDataRef 5 wit_x []) []]) 0 false;
                        t_ns_name := b "ns"; t_ns_autoescape := 0; t_params := [(wit_x, false)]; t_file := b "f.soy" |}];
     r_sources := [(wit_name, b "{namespace ns}{template .t}{$x}{/template}")];
     r_files := [(wit_name, b "f.soy")] |}.
Definition wit_shared : shared := {| sh_reg := wit_reg; sh_heap := [(7, [(wit_x, VStr (b "a b"))])] |}.
Definition wit_rq : request :=
  {| rq_name := wit_name; rq_data := 7; rq_ij := None; rq_fuel := 10; rq_calls_left := None; rq_bytes_left := None; rq_first_id := 100 |}.
Definition wit_world (v : variant) : world :=
  {| w_variant := v; w_oblig := [b "escapeUri"]; w_msgs := None;
     w_executions := fun _ _ => 1%nat;          (* the one print of the witness runs once per render *)
     w_clobber := fun _ m => m |}.

Lemma pinned_history_dependent :
  exists wd sh rq, w_variant wd = Pinned /\
    map (fun r => concat_b (rr_writes r)) (fst (run_history wd sh [rq; rq])) = [b "a+b"; b "a%2Bb"] /\
    concat_b (rr_writes (render_in wd sh rq)) = b "a+b".
Proof. exists (wit_world Pinned), wit_shared, wit_rq. vm_compute. repeat split; reflexivity. Qed.

Lemma repaired_witness :
  map (fun r => concat_b (rr_writes r)) (fst (run_history (wit_world Repaired) wit_shared [wit_rq; wit_rq])) = [b "a+b"; b "a+b"].
Proof. vm_compute. reflexivity. Qed.
