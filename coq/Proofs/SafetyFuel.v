(* C06: [OutOfFuel] is only about nesting.  For a bundle whose call
   graph is acyclic (a rank on template names decreases along every {call}) a
   recursion budget computed from the syntax suffices:
       fuel >= (tree_height of the tallest template) * (rank of the entry + 1);
   in particular [tree_height n] suffices for a call-free tree under any registry.
   (Recursive bundles need a budget that depends on the data: the statement's
   "recursion restricted to data-bounded depth".) *)
From Coq Require Import Lia ZifyBool.
From Soy Require Import Model.Bytes Model.Num Model.Values Model.Outcome Model.Ast
  Model.Escape Model.Directives Model.Print Generated.Tables Model.Interp
  Spec.Safety Proofs.ValueProofs Proofs.InterpLogic Proofs.InterpSub Proofs.SafetyPure Proofs.SafetyNodes
  Proofs.SafetyProofs.
Open Scope N_scope.

Definition allowed_nf (e : fault) : Prop :=
  match e with FCrash _ | FDiverge | FOutOfFuel => False | _ => True end.
Definition Rany (a b : mstate) : Prop := True.

Lemma nf_rel_conditions : rel_conditions Rany allowed_nf.
Proof. constructor; intros; exact I. Qed.

Lemma nf_pure_rel {A} (o : outcome A) : nf o -> rel_pure_ok allowed_nf o.
Proof. unfold rel_pure_ok. destruct o; cbn; tauto. Qed.

Lemma nf_pure_sites_sub : pure_sites_sub (@rel_pure_ok allowed_nf).
Proof.
  constructor.
  - intros. apply nf_pure_rel, pans_nf, pans_arith.
  - intros. apply nf_pure_rel, pans_nf, pans_compare.
  - intros. apply nf_pure_rel, pans_nf, pans_value_string.
  - intros. apply nf_pure_rel, pans_nf, pans_print_writes.
  - intros name ar vs H. apply nf_pure_rel, pans_nf. eapply pans_apply_func_table; eauto.
Qed.

(* [fuel_ok m]: no run of [m] ends in a crash, a divergence or fuel exhaustion *)
Definition fuel_ok {A} (m : M A) : Prop := rel_spec Rany allowed_nf m.

Lemma fuel_ok_nf {A} (m : M A) st : fuel_ok m -> nf (fst (m st)).
Proof.
  intros H. destruct (m st) as [r st'] eqn:E. destruct (H _ _ _ E) as [_ Ha].
  cbn [fst]. destruct r; cbn in Ha |- *; tauto.
Qed.

Lemma height_pos n : (0 < tree_height n)%nat.
Proof. destruct n; cbn [tree_height]; lia. Qed.

Lemma calls_below_syn rank r p i m d b b' :
  calls_below rank r (NMsg p i m d b) = true -> calls_below rank r (NMsg p 0 [] [] b') = true.
Proof. reflexivity. Qed.

Lemma fuel_ok_enter (w : node -> M value) callee cd :
  fuel_ok (w (t_node callee)) -> fuel_ok (call_enter w callee cd).
Proof.
  intros Hw st r st' H. rewrite call_enter_eq in H. cbn zeta in H.
  destruct (w (t_node callee) (entered st callee cd)) as [r1 st2] eqn:Hrun. cbn [fst snd] in H.
  destruct (Hw _ _ _ Hrun) as [_ Ha]. inversion H; subst. split; [exact I|].
  destruct (classify r1) as [x|e]; [exact I|]. rewrite classify_of_fault. exact Ha.
Qed.

Definition not_call (n : node) : bool := match n with NCall _ _ _ _ _ => false | _ => true end.
Definition call_free (n : node) : bool := node_all not_call n.

Theorem walk_fuel_callfree cf : forall fuel n,
  call_free n = true -> (tree_height n <= fuel)%nat -> fuel_ok (walk cf fuel n).
Proof.
  induction fuel as [|fuel IH]; intros n Hn Hf.
  - pose proof (height_pos n). lia.
  - rewrite walk_S.
    apply (phi_walk_body_sub cf _ _ (rel_logic_sub _ _ nf_rel_conditions) nf_pure_sites_sub).
    + apply rel_modify. intros st. exact I.
    + intros n' Hin. apply IH.
      * exact (node_all_sub not_call (fun _ _ _ _ _ _ H => H) n n' Hn Hin).
      * pose proof (height_sub n n' Hin). lia.
    + intros callee cd Hc. apply node_all_head in Hn.
      destruct n; cbn in Hc, Hn; discriminate.
Qed.

(* what Renderer.Execute makes of a finished walk *)
Lemma render_of_nf_walk cf fuel name data_id data cl bl first_id t :
  find_template (r_templates (c_reg cf)) name = Some t ->
  nf (fst (walk cf fuel (t_node t)
             (init_state (sc_enter (new_scope data_id data)) (entry_mode (t_ns_autoescape t)) name cl bl first_id))) ->
  nf (rr_outcome (render cf fuel name data_id data cl bl first_id))
  \/ exists m, rr_outcome (render cf fuel name data_id data cl bl first_id) = Crash m.
Proof.
  intros Hfind Hnf. unfold render. rewrite Hfind.
  set (st0 := init_state _ _ _ _ _ _) in *.
  destruct (walk cf fuel (t_node t) st0) as [r st]. cbn [fst] in Hnf.
  destruct r; cbn [rr_outcome]; cbn in Hnf; try tauto; try (left; exact I).
  destruct (assoc_s name (r_sources (c_reg cf))); [|left; exact I].
  destruct (assoc_s name (r_files (c_reg cf))); [|left; exact I].
  destruct (line_number _ _); [left; exact I | right; eexists; reflexivity].
Qed.

Lemma reg_template_height_le cf t :
  In t (r_templates (c_reg cf)) -> (tree_height (t_node t) <= reg_height (c_reg cf))%nat.
Proof. intros Hin. apply (fold_max_le (fun t => tree_height (t_node t)) t _ Hin). Qed.

Section Ranked.
Variable cf : cfg.
Variable rank : bstr -> nat.
Hypothesis Hrk : reg_ranked rank (c_reg cf) = true.
Let H := reg_height (c_reg cf).

Lemma template_ranked_in t : In t (r_templates (c_reg cf)) ->
  node_all (calls_below rank (rank (t_name t))) (t_node t) = true.
Proof. exact (forallb_In _ _ _ Hrk). Qed.

Theorem walk_fuel_ranked : forall fuel n r,
  node_all (calls_below rank r) n = true -> (tree_height n + H * r <= fuel)%nat -> fuel_ok (walk cf fuel n).
Proof.
  induction fuel as [|fuel IH]; intros n r Hn Hf.
  - pose proof (height_pos n). lia.
  - rewrite walk_S.
    apply (phi_walk_body_sub cf _ _ (rel_logic_sub _ _ nf_rel_conditions) nf_pure_sites_sub).
    + apply rel_modify. intros st. exact I.
    + intros n' Hin. apply (IH n' r).
      * exact (node_all_sub _ (calls_below_syn rank r) n n' Hn Hin).
      * pose proof (height_sub n n' Hin). lia.
    + intros callee cd Hc. apply fuel_ok_enter.
      apply node_all_head in Hn.
      destruct n; cbn [callee_of] in Hc; try discriminate. cbn [calls_below] in Hn.
      apply find_template_some in Hc as [Hin <-]. apply Nat.ltb_lt in Hn.
      apply (IH (t_node callee) _ (template_ranked_in _ Hin)).
      pose proof (reg_template_height_le _ _ Hin). pose proof (height_pos (NCall p (t_name callee) alldata data params)). nia.
Qed.

(* Renderer.Execute on an acyclic bundle: this much fuel is enough *)
Theorem render_fuel_ranked fuel name data_id data cl bl first_id :
  (H * S (rank name) <= fuel)%nat ->
  nf (rr_outcome (render cf fuel name data_id data cl bl first_id))
  \/ exists m, rr_outcome (render cf fuel name data_id data cl bl first_id) = Crash m.
Proof.
  intros Hf.
  destruct (find_template (r_templates (c_reg cf)) name) as [t|] eqn:Hfind; [|left; unfold render; rewrite Hfind; exact I].
  apply (render_of_nf_walk _ _ _ _ _ _ _ _ t Hfind), fuel_ok_nf.
  apply find_template_some in Hfind as [Hin <-].
  apply (walk_fuel_ranked fuel (t_node t) _ (template_ranked_in _ Hin)).
  pose proof (reg_template_height_le _ _ Hin). nia.
Qed.
End Ranked.

(* with a well-formed registry: result or error value (or outside the float/randomInt/json model) *)
Theorem render_total_ranked cf rank fuel name data_id data cl bl first_id :
  reg_ok (c_reg cf) = true -> reg_ranked rank (c_reg cf) = true ->
  (reg_height (c_reg cf) * S (rank name) <= fuel)%nat ->
  match rr_outcome (render cf fuel name data_id data cl bl first_id) with
  | Ok _ | Err _ | OutOfModel => True
  | _ => False
  end.
Proof.
  intros Hok Hrk Hf.
  pose proof (render_no_escape_lemma cf fuel name data_id data cl bl first_id Hok) as Hne.
  destruct (render_fuel_ranked cf rank Hrk fuel name data_id data cl bl first_id Hf) as [Hnf|[m Hm]].
  - destruct (rr_outcome _); cbn in *; tauto.
  - rewrite Hm in Hne. destruct Hne.
Qed.
