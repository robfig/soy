(* C15, bodies with print commands among the tags (Spec/TextTags.v): the item grammar [c15_gshape] (as [mshape] of
   Proofs/LexBodyMixMain.v, with a third kind of tag: "{" and the items of a print command), the reading of a
   body through the pieces of its stretches, the items with the positions of the print commands' items erased,
   and small facts about [c15_view0]. *)
From Soy Require Import Model.Bytes Model.Ast Model.Token Generated.Tables Spec.Text Spec.TextTags Spec.ExprSyntax Proofs.ExprParserProofs
  Proofs.ParserMeasure Proofs.ParserProofs Proofs.LexBodyMixMain Proofs.ParseBodyText Proofs.LexPrintMain Proofs.LexParseText
  Proofs.PlaceholderTextProofs Proofs.CmdParserStripDefs.
From Coq Require Import Lia.
Open Scope N_scope.

(* the items of a body; X n mid: the items of the print command n after its "{" *)
Inductive c15_gshape (X : node -> list tok -> Prop) : list bstr -> list (c15_tag * list bstr) -> list tok -> Prop :=
| gs_end pcs its e : pshape pcs its -> t_typ e = itemEOF -> c15_gshape X pcs [] (its ++ [e])
| gs_text pcs its c o tg pcs' rest items :
    pshape pcs its -> tagitems o tg -> c15_gshape X pcs' rest items ->
    c15_gshape X pcs ((C15Text (c, o), pcs') :: rest) (its ++ tg ++ items)
| gs_print pcs its n txt ld mid pcs' rest items :
    pshape pcs its -> t_typ ld = itemLeftDelim -> X n mid -> c15_gshape X pcs' rest items ->
    c15_gshape X pcs ((C15Print n txt, pcs') :: rest) (its ++ (ld :: mid) ++ items).

(* as the scanner sends them: types and texts of tokens_of_print n; with the positions erased: exactly the items
   of the command with all positions 0 *)
Definition c15_X1 (n : node) (mid : list tok) : Prop := map tv mid = map tv (tokens_of_print n).
Definition c15_X0 (n : node) (mid : list tok) : Prop := mid = tokens_of_print (strip_pos n).

(* the reading, through the pieces *)
Fixpoint gs_rest_out (rp : list (c15_tag * list bstr)) : c15_reading :=
  match rp with
  | [] => ([], [])
  | (tg, pcs) :: rp' =>
      let o := gs_rest_out rp' in
      match tg with
      | C15Text (_, tx) => (tx ++ norm_pieces false pcs ++ fst o, snd o)
      | C15Print n _ => ([], (strip_pos n, norm_pieces false pcs ++ fst o) :: snd o)
      end
  end.
Definition gs_out (fl : bool) (pcs : list bstr) (rp : list (c15_tag * list bstr)) : c15_reading :=
  (norm_pieces fl pcs ++ fst (gs_rest_out rp), snd (gs_rest_out rp)).

Lemma twf_strip_tok inlen t : twf inlen t -> twf inlen (strip_tok t).
Proof.
  unfold twf, twfb, strip_tok. cbn [t_pos t_typ t_val tk]. intros H.
  apply Bool.andb_true_iff in H. destruct H as [H H2]. apply Bool.andb_true_iff in H. destruct H as [_ H1].
  rewrite H1, H2. destruct inlen; reflexivity.
Qed.

Lemma erase_print inlen n mid : c15_X1 n mid -> Forall (twf inlen) mid ->
  c15_X0 n (map strip_tok mid) /\ map strip_tok (map strip_tok mid) = map strip_tok mid /\ Forall (twf inlen) (map strip_tok mid).
Proof.
  intros HX Hw. split; [unfold c15_X0, tokens_of_print; rewrite show_print_strip; apply tv_strip; exact HX|].
  split; [rewrite map_map; apply map_ext; intros t; reflexivity|].
  rewrite Forall_forall in *. intros t Ht. apply in_map_iff in Ht. destruct Ht as (t0 & <- & Ht0). apply twf_strip_tok, Hw, Ht0.
Qed.

Lemma gshape_erase inlen : forall pcs rp items, c15_gshape c15_X1 pcs rp items -> items_wf inlen items ->
  exists items0, c15_gshape c15_X0 pcs rp items0 /\ map strip_tok items0 = map strip_tok items /\ items_wf inlen items0 /\
                 length items0 = length items.
Proof.
  intros pcs rp items H. induction H as [pcs its e Hps He|pcs its c o tg pcs' rest items Hps Htg Hsh IH|pcs its n txt ld mid pcs' rest items Hps Hld HX Hsh IH];
    intros Hw.
  - exists (its ++ [e]). split; [apply gs_end; assumption|auto].
  - unfold items_wf in Hw. rewrite !Forall_app in Hw. destruct Hw as (Hw1 & Hw2 & Hw3). destruct (IH Hw3) as (items0 & Hsh0 & Hst & Hw0 & Hlen).
    exists (its ++ tg ++ items0).
    split; [apply gs_text; assumption|]. split; [rewrite !map_app, Hst; reflexivity|].
    split; [unfold items_wf; rewrite !Forall_app; auto|]. rewrite !app_length, Hlen. reflexivity.
  - unfold items_wf in Hw. rewrite !Forall_app in Hw. destruct Hw as (Hw1 & Hw2 & Hw3). destruct (IH Hw3) as (items0 & Hsh0 & Hst & Hw0 & Hlen).
    inversion Hw2 as [|? ? Hwld Hwmid]; subst. destruct (erase_print inlen n mid HX Hwmid) as (HX0 & Hmm & Hwm).
    exists (its ++ (ld :: map strip_tok mid) ++ items0).
    split; [apply gs_print; assumption|]. split; [rewrite !map_app; cbn [map]; rewrite Hst, Hmm; reflexivity|].
    split; [unfold items_wf; rewrite !Forall_app; auto|]. rewrite !app_length. cbn [length]. rewrite map_length, Hlen. reflexivity.
Qed.

Lemma strip_pos_idem : forall e, wf_expr e -> strip_pos (strip_pos e) = strip_pos e.
Proof.
  induction e as [e IH] using size_induction. intros Hwf.
  destruct e; cbn [wf_expr] in Hwf; try contradiction; cbn [strip_pos]; try reflexivity.
  - f_equal. rewrite map_map. apply map_ext_in. intros c Hc. apply IH; [cbn [size]; pose proof (size_in_list c args Hc); lia|exact (allP_In _ _ _ Hwf Hc)].
  - f_equal. rewrite map_map. apply map_ext_in. intros c Hc. apply IH; [cbn [size]; pose proof (size_in_list c items Hc); lia|exact (allP_In _ _ _ Hwf Hc)].
  - f_equal. rewrite map_map. apply map_ext_in. intros kv Hc. cbn [fst snd]. f_equal. destruct Hwf as [Hwa _].
    apply IH; [cbn [size]; pose proof (list_sum_In (fun kv => size (snd kv)) kv _ Hc); lia|exact (proj2 (allP_In _ _ _ Hwa Hc))].
  - f_equal. rewrite map_map. apply map_ext_in. intros a Hc. pose proof (allP_In _ _ _ Hwf Hc) as Ha. cbn beta in Ha.
    destruct a; try contradiction; cbn [strip_pos]; try reflexivity. f_equal.
    apply IH; [pose proof (size_in_list _ access Hc) as Hs; cbn [size] in Hs |- *; lia|exact Ha].
  - f_equal. apply IH; [cbn [size]; lia|exact Hwf].
  - f_equal. apply IH; [cbn [size]; lia|exact Hwf].
  - destruct Hwf as [H1 H2]. f_equal; apply IH; try assumption; cbn [size]; lia.
  - destruct Hwf as (_ & H1 & H2 & H3). f_equal; apply IH; try assumption; cbn [size]; lia.
Qed.

Lemma strip_pos_idem_print n : wf_print n -> strip_pos (strip_pos n) = strip_pos n.
Proof.
  destruct n; cbn [wf_print]; try contradiction. intros [Ha Hd]. cbn [strip_pos]. f_equal; [apply strip_pos_idem; exact Ha|].
  rewrite map_map. apply map_ext_in. intros d Hin. pose proof (allP_In _ _ _ Hd Hin) as Hdd.
  destruct d; cbn [wf_directive] in Hdd; try contradiction. cbn [strip_pos]. f_equal. rewrite map_map. apply map_ext_in.
  intros c Hc. apply strip_pos_idem. exact (allP_In _ _ _ Hdd Hc).
Qed.

Lemma view0_raw_app : forall ns r, Forall is_raw ns ->
  c15_view0 (map cps_strip (ns ++ r)) = (concat (map raw_text_of ns) ++ fst (c15_view0 (map cps_strip r)), snd (c15_view0 (map cps_strip r))).
Proof.
  induction ns as [|n ns IH]; intros r H; [cbn; destruct (c15_view0 (map cps_strip r)); reflexivity|].
  inversion H as [|? ? Hn Hns]; subst. destruct n; try contradiction. cbn [app map cps_strip c15_view0 raw_text_of concat].
  rewrite (IH r Hns). cbn [fst snd]. rewrite app_assoc. reflexivity.
Qed.

Lemma view0_raw_cons p o r :
  c15_view0 (map cps_strip (NRawText p o :: r)) = (o ++ fst (c15_view0 (map cps_strip r)), snd (c15_view0 (map cps_strip r))).
Proof. reflexivity. Qed.

Lemma view0_print_cons n r : wf_print n ->
  c15_view0 (map cps_strip (strip_pos n :: r)) = ([], (strip_pos n, fst (c15_view0 (map cps_strip r))) :: snd (c15_view0 (map cps_strip r))).
Proof.
  intros Hwf. pose proof (strip_pos_idem_print n Hwf) as Hid. destruct n; cbn [wf_print] in Hwf; try contradiction.
  cbn [map]. match goal with |- context [cps_strip (strip_pos ?x)] => change (cps_strip (strip_pos x)) with (strip_pos (strip_pos x)) end.
  rewrite Hid. reflexivity.
Qed.

(* the reading of the nodes of a stretch, alone or followed by a tag's node and the nodes of the rest of the body *)
Lemma gs_out_end fl pcs nodes : Forall is_raw nodes -> concat (map raw_text_of nodes) = norm_pieces fl pcs ->
  c15_view0 (map cps_strip nodes) = gs_out fl pcs [].
Proof.
  intros Hraw Hcat. rewrite <- (app_nil_r nodes), (view0_raw_app nodes [] Hraw), Hcat. reflexivity.
Qed.

Lemma gs_out_text fl pcs nodes p c o pcs' rest nodes2 : Forall is_raw nodes -> concat (map raw_text_of nodes) = norm_pieces fl pcs ->
  c15_view0 (map cps_strip nodes2) = gs_out false pcs' rest ->
  c15_view0 (map cps_strip (nodes ++ NRawText p o :: nodes2)) = gs_out fl pcs ((C15Text (c, o), pcs') :: rest).
Proof.
  intros Hraw Hcat Hv. rewrite (view0_raw_app nodes _ Hraw), view0_raw_cons, Hv, Hcat. unfold gs_out. cbn [gs_rest_out fst snd]. rewrite <- ?app_assoc. reflexivity.
Qed.

Lemma gs_out_print fl pcs nodes n txt pcs' rest nodes2 : wf_print n -> Forall is_raw nodes -> concat (map raw_text_of nodes) = norm_pieces fl pcs ->
  c15_view0 (map cps_strip nodes2) = gs_out false pcs' rest ->
  c15_view0 (map cps_strip (nodes ++ strip_pos n :: nodes2)) = gs_out fl pcs ((C15Print n txt, pcs') :: rest).
Proof.
  intros Hwf Hraw Hcat Hv. rewrite (view0_raw_app nodes _ Hraw), (view0_print_cons n nodes2 Hwf), Hv, Hcat. unfold gs_out. cbn [gs_rest_out fst snd]. rewrite app_nil_r. reflexivity.
Qed.
