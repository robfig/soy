(* C14, token grammar: a Hoare logic for the generator's writer monad ([tr]), the state invariants the syntax of
   the output depends on ([inv], [invS]), and the composition of token-level fragments ([reach]). *)
From Soy Require Import Model.Bytes Model.Num Model.Values Model.Outcome Model.Ast Model.JsGen Generated.Tables
  Spec.JsSyntax Spec.JsShape.
From Soy Require Import Proofs.JsWfBase Proofs.JsWfFrame.
Open Scope N_scope.

Lemma bind_inv {A B} (m : J A) (f : A -> J B) st r :
  jbind m f st = Ok r -> exists x st1, m st = Ok (x, st1) /\ f x st1 = Ok r.
Proof. unfold jbind. destruct (m st) as [[x st1]| | | | |]; try discriminate. intro H. exists x, st1. auto. Qed.
Lemma ret_inv {A} (x y : A) st st' : jret x st = Ok (y, st') -> y = x /\ st' = st.
Proof. unfold jret. intro H. inversion H. auto. Qed.
Lemma get_inv st y st' : jget st = Ok (y, st') -> y = st /\ st' = st.
Proof. unfold jget. intro H. inversion H. auto. Qed.
Lemma mod_inv f st y st' : jmod f st = Ok (y, st') -> st' = f st.
Proof. unfold jmod. intro H. inversion H. auto. Qed.
Lemma emit_inv cs st y st' : jemit cs st = Ok (y, st') -> st' = upd_out (fun o => rev_append cs o) st.
Proof. unfold jemit. apply mod_inv. Qed.

Definition ext (st st' : jstate) (cs : list chunk) : Prop := j_out st' = rev cs ++ j_out st.
Lemma ext_refl st st' : j_out st' = j_out st -> ext st st' [].
Proof. intro H. unfold ext. rewrite H. reflexivity. Qed.
Lemma ext_step st st1 st' cs1 c : ext st st1 cs1 -> j_out st' = rev_append c (j_out st1) -> ext st st' (cs1 ++ c).
Proof. unfold ext. intros H1 H2. rewrite H2, rev_append_rev, H1, rev_app_distr, app_assoc. reflexivity. Qed.
Lemma ext_trans st st1 st' cs1 cs2 : ext st st1 cs1 -> ext st1 st' cs2 -> ext st st' (cs1 ++ cs2).
Proof. unfold ext. intros H1 H2. rewrite H2, H1, rev_app_distr, app_assoc. reflexivity. Qed.

Section Inv.
Variable fmt : jsfmt.
Notation md := (is_module fmt).

Definition frame_ok (f : list (bstr * bstr)) : Prop :=
  (forall k g, ident_ok k = true -> assoc_s k f = Some g -> g <> [] -> name_ok g)
  /\ (forall ix, assoc_s jk_index f = Some ix -> ix <> [] -> name_ok ix /\ exists lim, assoc_s jk_limit f = Some lim /\ name_ok lim).
Definition scope_ok (s : list (list (bstr * bstr))) : Prop := Forall frame_ok s.
Definition called_ok (st : jstate) : Prop := Forall (fun kv : bstr * list chunk => imp_ok fmt (snd kv) = true) (j_called st).

(* an expression: from "operand expected" to "operand seen", on any stack *)
Definition exprC (cs : list chunk) (i : bool) : Prop := forall cl s, emits md cs (MWant cl) s (MHave i) s [].
(* statements: from the start of a statement to the start of a statement *)
Definition stmtC (cs : list chunk) : Prop := forall e s, exists e', emits md cs (MStmt e) s (MStmt e') s [].

Definition reach (cs : list chunk) (m : mode) (s : list frame) (P : mode -> list frame -> Prop) : Prop :=
  exists m' s', emits md cs m s m' s' [] /\ P m' s'.

Lemma reach_nil m s (P : mode -> list frame -> Prop) : P m s -> reach [] m s P.
Proof. intro H. exists m, s. split; [apply emits_nil|exact H]. Qed.
Lemma reach_emits cs m s m' s' (P : mode -> list frame -> Prop) : emits md cs m s m' s' [] -> P m' s' -> reach cs m s P.
Proof. intros A H. exists m', s'. auto. Qed.
Lemma reach_step a c m s m1 s1 P : emits md a m s m1 s1 [] -> reach c m1 s1 P -> reach (a ++ c) m s P.
Proof. intros A (m2 & s2 & C & H). exists m2, s2. split; [exact (emits_app0 _ _ _ _ _ _ _ _ _ A C)|exact H]. Qed.
Lemma reach_cons c r m s m1 s1 P : emits md [c] m s m1 s1 [] -> reach r m1 s1 P -> reach (c :: r) m s P.
Proof. exact (reach_step [c] r m s m1 s1 P). Qed.
Lemma reach_app a c m s P Q : reach a m s P -> (forall m1 s1, P m1 s1 -> reach c m1 s1 Q) -> reach (a ++ c) m s Q.
Proof. intros (m1 & s1 & A & H) C. exact (reach_step a c m s m1 s1 Q A (C m1 s1 H)). Qed.

(* the start of a statement, on the stack s *)
Definition at_stmt (s : list frame) (m' : mode) (s' : list frame) : Prop := (exists e, m' = MStmt e) /\ s' = s.
Lemma stmtC_reach cs : stmtC cs <-> forall e s, reach cs (MStmt e) s (at_stmt s).
Proof.
  split; intros H e s.
  - destruct (H e s) as (e' & R). exists (MStmt e'), s. split; [exact R|split; eauto].
  - destruct (H e s) as (m' & s' & R & (e' & ->) & ->). eauto.
Qed.

Lemma stmtC_nil : stmtC [].
Proof. intros e s. exists e. apply emits_nil. Qed.
Lemma stmtC_app a c : stmtC a -> stmtC c -> stmtC (a ++ c).
Proof. intros A C e s. destruct (A e s) as (e1 & A1). destruct (C e1 s) as (e2 & C2). exists e2. exact (emits_app0 _ _ _ _ _ _ _ _ _ A1 C2). Qed.

Implicit Types P : jstate -> Prop.
Definition tr {A} P (m : J A) (T : A -> list chunk -> Prop) P' : Prop :=
  forall st x st', P st -> m st = Ok (x, st') -> exists cs, ext st st' cs /\ T x cs /\ P' st'.

Lemma tr_bind {A B} P P1 P2 (m : J A) (f : A -> J B) T1 (T : B -> list chunk -> Prop) :
  tr P m T1 P1 -> (forall x c1, T1 x c1 -> tr P1 (f x) (fun y c2 => T y (c1 ++ c2)) P2) -> tr P (jbind m f) T P2.
Proof.
  intros Hm Hf st y st2 Hp H. apply bind_inv in H. destruct H as (x & st1 & H1 & H2).
  destruct (Hm st x st1 Hp H1) as (c1 & E1 & T1x & Hp1). destruct (Hf x c1 T1x st1 y st2 Hp1 H2) as (c2 & E2 & Ty & Hp2).
  exists (c1 ++ c2). split; [exact (ext_trans _ _ _ _ _ E1 E2)|auto].
Qed.
Lemma tr_assoc {A B C} P P' (m : J A) (f : A -> J B) (g : B -> J C) T :
  tr P (jbind m (fun x => jbind (f x) g)) T P' -> tr P (jbind (jbind m f) g) T P'.
Proof. intros H st y st' Hp Hr. apply (H st y st' Hp). unfold jbind in *. destruct (m st) as [[x st1]| | | | |]; exact Hr. Qed.
Lemma tr_post {A} P P' (m : J A) T' (T : A -> list chunk -> Prop) : tr P m T' P' -> (forall x cs, T' x cs -> T x cs) -> tr P m T P'.
Proof. intros Hm HT st x st' Hp H. destruct (Hm st x st' Hp H) as (cs & E & Tx & Hp'). exists cs. auto. Qed.
Lemma tr_weaken {A} P P1 P2 (m : J A) T : tr P m T P1 -> (forall st, P1 st -> P2 st) -> tr P m T P2.
Proof. intros Hm HP st x st' Hp H. destruct (Hm st x st' Hp H) as (cs & E & Tx & Hp'). exists cs. auto. Qed.
Lemma tr_ret {A} P (x : A) : tr P (jret x) (fun y cs => y = x /\ cs = []) P.
Proof. intros st y st' Hp H. apply ret_inv in H. destruct H as [-> ->]. exists []. split; [apply ext_refl; reflexivity|auto]. Qed.
Lemma tr_stuck {A} P (r : outcome (A * jstate)) T P' : (forall v, r <> Ok v) -> tr P (fun _ => r) T P'.
Proof. intros Hr st x st' _ H. exfalso. exact (Hr _ H). Qed.
Lemma tr_fail {A} P e (T : A -> list chunk -> Prop) P' : tr P (jfail e) T P'.
Proof. intros st x st' _ H. discriminate H. Qed.
Lemma tr_get P : tr P jget (fun st cs => P st /\ cs = []) P.
Proof. intros st y st' Hp H. apply get_inv in H. destruct H as [-> ->]. exists []. split; [apply ext_refl; reflexivity|auto]. Qed.
Lemma tr_mod P P' f : (forall st, P st -> P' (f st)) -> (forall st, j_out (f st) = j_out st) -> tr P (jmod f) (fun _ cs => cs = []) P'.
Proof. intros Hf Ho st y st' Hp H. apply mod_inv in H. subst st'. exists []. split; [apply ext_refl; apply Ho|auto]. Qed.

(* the parts of the state the syntax of the output depends on; an invariant that looks at nothing else survives
   every action that only writes *)
Definition obs (st : jstate) := (j_scope st, j_buf st, j_called st).
Definition respects (P : jstate -> Prop) : Prop := forall st st', obs st' = obs st -> P st -> P st'.

Lemma tr_emit P cs : respects P -> tr P (jemit cs) (fun _ c => c = cs) P.
Proof.
  intros HP st y st' Hp H. apply emit_inv in H. subst st'. exists cs. split; [|split; [reflexivity|exact (HP st (upd_out _ st) eq_refl Hp)]].
  eapply (ext_step st st _ [] cs); [apply ext_refl|]; reflexivity.
Qed.
Lemma tr_same P f : respects P -> (forall st, obs (f st) = obs st) -> (forall st, j_out (f st) = j_out st) -> tr P (jmod f) (fun _ cs => cs = []) P.
Proof. intros HP Hf. apply tr_mod. intros st Hp. exact (HP _ _ (Hf st) Hp). Qed.

Lemma tr_txt P t : respects P -> tr P (jtxt t) (fun _ c => c = [CText t]) P.
Proof. apply tr_emit. Qed.
Lemma tr_indent P : respects P -> tr P jindent (fun _ c => exists n, c = [CText (indent_text n)]) P.
Proof.
  intro HP. eapply tr_bind; [apply tr_get|]. intros st c1 [_ ->]. eapply tr_post; [apply tr_txt; exact HP|].
  intros _ cs ->. cbn. eauto.
Qed.
Lemma tr_sln P cs : respects P -> tr P (jsln cs) (fun _ c => exists n, c = CText (indent_text n) :: cs ++ [CText t_nl]) P.
Proof.
  intro HP. eapply tr_bind; [apply tr_indent; exact HP|]. intros _ c1 (n & ->).
  eapply tr_bind; [apply tr_emit; exact HP|]. intros _ c2 ->. eapply tr_post; [apply tr_txt; exact HP|]. intros _ c3 ->. exists n. reflexivity.
Qed.
Lemma tr_indent_inc P : respects P -> tr P indent_inc (fun _ c => c = []) P.
Proof. intro HP. apply tr_same; auto. Qed.
Lemma tr_indent_dec P : respects P -> tr P indent_dec (fun _ c => c = []) P.
Proof. intro HP. apply tr_same; auto. Qed.

(* the two invariants: inside an expression the scope is fixed; between statements it is only well formed *)
Definition inv (b : bstr) (sc : list (list (bstr * bstr))) (st : jstate) : Prop := j_scope st = sc /\ j_buf st = b /\ called_ok st.
Definition invS (b : bstr) (st : jstate) : Prop := scope_ok (j_scope st) /\ j_buf st = b /\ called_ok st.
Lemma respects_inv b sc : respects (inv b sc).
Proof. intros st st' E (H1 & H2 & H3). injection E as E1 E2 E3. unfold inv, called_ok. rewrite E1, E2, E3. auto. Qed.
Lemma respects_invS b : respects (invS b).
Proof. intros st st' E (H1 & H2 & H3). injection E as E1 E2 E3. unfold invS, called_ok. rewrite E1, E2, E3. auto. Qed.
Lemma inv_invS b sc st : scope_ok sc -> inv b sc st -> invS b st.
Proof. intros Hs (<- & H2 & H3). repeat split; assumption. Qed.

Lemma tr_bufname b P : (forall st, P st -> j_buf st = b) -> tr P bufname (fun x c => x = [CName b] /\ c = []) P.
Proof.
  intro Hb. eapply tr_bind; [apply tr_get|]. intros st c1 [Hp ->]. eapply tr_post; [apply tr_ret|]. intros x c [-> ->].
  rewrite (Hb _ Hp). auto.
Qed.

Lemma inv_buf b sc st : inv b sc st -> j_buf st = b.
Proof. intros (_ & H & _). exact H. Qed.
Lemma invS_buf b st : invS b st -> j_buf st = b.
Proof. intros (_ & H & _). exact H. Qed.

(* an action specified inside an expression, used between statements *)
Lemma tr_scope {A} b (m : J A) T : (forall sc, scope_ok sc -> tr (inv b sc) m T (inv b sc)) -> tr (invS b) m T (invS b).
Proof.
  intros H st x st' (Hs & Hb & Hk) Hr. destruct (H _ Hs st x st' (conj eq_refl (conj Hb Hk)) Hr) as (cs & E & Tx & Hi).
  exists cs. split; [exact E|]. split; [exact Tx|]. exact (inv_invS _ _ _ Hs Hi).
Qed.

End Inv.

(* the rules of the logic, and the specifications proved with it, are looked up by the head of the action *)
Create HintDb jwf discriminated.
#[export] Hint Constants Opaque : jwf.
#[export] Hint Resolve tr_ret tr_fail tr_get tr_emit tr_txt tr_indent tr_sln tr_indent_inc tr_indent_dec tr_bufname
  respects_inv respects_invS inv_buf invS_buf : jwf.
#[export] Hint Extern 1 (tr _ (jmod _) _ _) => (apply tr_same; [solve [auto with jwf] | intro; reflexivity | intro; reflexivity]) : jwf.

(* what a step has established: conjunctions and witnesses are opened, equations of variables substituted *)
Ltac tpull H :=
  lazymatch type of H with
  | _ /\ _ => let H1 := fresh H in let H2 := fresh H in destruct H as [H1 H2]; tpull H1; tpull H2
  | exists _, _ => let x := fresh "n" in destruct H as [x H]; tpull H
  | ?a = ?c => first [ is_var a; subst a | is_var c; subst c | idtac ]
  | unit => destruct H
  | (_ * _)%type => let a := fresh H in let b := fresh H in destruct H as [a b]; tpull a
  | _ => idtac
  end.
(* what the action reads of a state it got by [jget] is what the invariant says of it *)
Ltac tread :=
  repeat match goal with
         | H : invS _ _ ?x |- context [j_buf ?x] => rewrite (invS_buf _ _ _ H)
         | H : inv _ _ _ ?x |- context [j_buf ?x] => rewrite (inv_buf _ _ _ _ H)
         end.
(* one step along the syntax of an action: the first action of a bind by its specification, then the rest under
   what that established; a case distinction where the action makes one; the last action by its specification *)
Ltac tstep :=
  lazymatch goal with
  | |- tr _ (jbind (if ?b then _ else _) _) _ _ => destruct b
  | |- tr _ (jbind (match ?x with _ => _ end) _) _ _ => destruct x
  | |- tr _ (jbind (jbind _ _) _) _ _ => apply tr_assoc
  | |- tr _ (jbind _ _) _ _ =>
      eapply tr_bind; [ solve [eauto with jwf] | let x := fresh "x" in let c := fresh "c" in let H := fresh "H" in intros x c H; cbv beta in H; tpull H; try (tpull x; cbv beta iota in H |- *; tpull H); tread ]
  | |- tr _ (if ?b then _ else _) _ _ => destruct b
  | |- tr _ (match ?x with _ => _ end) _ _ => destruct x
  | |- tr _ (jfail _) _ _ => apply tr_fail
  | |- tr _ (jtxt (if ?b then _ else _)) _ _ => destruct b
  | |- tr _ (fun _ => _) _ _ => apply tr_stuck; intros ? ?; discriminate
  | |- tr _ _ _ _ =>
      eapply tr_post; [ solve [eauto with jwf] | let x := fresh "x" in let c := fresh "c" in let H := fresh "H" in intros x c H; cbv beta in H; tpull H; try (tpull x; cbv beta iota in H |- *; tpull H); tread ]
  end.
Ltac tgo := repeat tstep.
