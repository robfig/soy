(* C20: laws of data/value.go's model (Model/Values.v).  The lemmas that tie the hand model to
   the regenerated Truthy/Equals tables are in Proofs/ValueTieProofs.v, the conversion
   theorems in Proofs/ConvertProofs.v. *)
From Coq Require Import Lia ZifyBool Permutation Sorting.Sorted.
From Soy Require Import Model.Bytes Model.Num Model.Outcome Model.Values.
From Soy Require Export Proofs.BytesBase.
Open Scope N_scope.

Lemma bstr_ltb_irrefl x : bstr_ltb x x = false.
Proof.
  induction x as [|a x IH]; cbn [bstr_ltb]; [reflexivity|].
  destruct (N.ltb_spec a a); [lia | exact IH].
Qed.

Lemma bstr_ltb_asym x y : bstr_ltb x y = true -> bstr_ltb y x = false.
Proof.
  revert y; induction x as [|a x IH]; intros [|c y]; cbn [bstr_ltb]; try congruence.
  destruct (N.ltb_spec a c), (N.ltb_spec c a); try congruence; try lia; try apply IH.
Qed.

Lemma bstr_ltb_trichotomy x y : bstr_ltb x y = false -> bstr_ltb y x = false -> x = y.
Proof.
  revert y; induction x as [|a x IH]; intros [|c y]; cbn [bstr_ltb]; try congruence.
  destruct (N.ltb_spec a c), (N.ltb_spec c a); try congruence.
  intros H1 H2. assert (a = c) by lia. subst. f_equal. apply IH; assumption.
Qed.

Lemma bstr_ltb_trans x y z : bstr_ltb x y = true -> bstr_ltb y z = true -> bstr_ltb x z = true.
Proof.
  revert y z; induction x as [|a x IH]; intros [|c y] [|d z]; cbn [bstr_ltb]; try congruence.
  destruct (N.ltb_spec a c), (N.ltb_spec c a), (N.ltb_spec c d), (N.ltb_spec d c),
           (N.ltb_spec a d), (N.ltb_spec d a); try congruence; try lia.
  apply IH.
Qed.

Lemma bstr_leb_total x y : bstr_leb x y = true \/ bstr_leb y x = true.
Proof.
  unfold bstr_leb. destruct (bstr_ltb y x) eqn:H; [right | left; reflexivity].
  rewrite (bstr_ltb_asym _ _ H). reflexivity.
Qed.

Lemma bstr_leb_antisym x y : bstr_leb x y = true -> bstr_leb y x = true -> x = y.
Proof.
  unfold bstr_leb. rewrite !negb_true_iff. intros H1 H2. apply bstr_ltb_trichotomy; assumption.
Qed.

Lemma bstr_leb_trans x y z : bstr_leb x y = true -> bstr_leb y z = true -> bstr_leb x z = true.
Proof.
  unfold bstr_leb. rewrite !negb_true_iff. intros H1 H2.
  destruct (bstr_ltb z x) eqn:Hzx; [|reflexivity].
  destruct (bstr_ltb x y) eqn:Hxy.
  - rewrite (bstr_ltb_trans _ _ _ Hzx Hxy) in H2. discriminate.
  - rewrite (bstr_ltb_trichotomy _ _ Hxy H1) in Hzx. congruence.
Qed.

Lemma insert_sorted_comm x y l :
  insert_sorted x (insert_sorted y l) = insert_sorted y (insert_sorted x l).
Proof.
  induction l as [|z r IH]; cbn [insert_sorted].
  - destruct (bstr_leb x y) eqn:Hxy, (bstr_leb y x) eqn:Hyx; try reflexivity.
    + rewrite (bstr_leb_antisym _ _ Hxy Hyx). reflexivity.
    + destruct (bstr_leb_total x y); congruence.
  - destruct (bstr_leb y z) eqn:Hyz, (bstr_leb x z) eqn:Hxz; cbn [insert_sorted].
    + rewrite Hyz, Hxz.
      destruct (bstr_leb x y) eqn:Hxy, (bstr_leb y x) eqn:Hyx; try reflexivity.
      * rewrite (bstr_leb_antisym _ _ Hxy Hyx). reflexivity.
      * destruct (bstr_leb_total x y); congruence.
    + rewrite Hyz, Hxz.
      destruct (bstr_leb x y) eqn:Hxy.
      * rewrite (bstr_leb_trans _ _ _ Hxy Hyz) in Hxz. discriminate.
      * reflexivity.
    + rewrite Hyz, Hxz.
      destruct (bstr_leb y x) eqn:Hyx.
      * rewrite (bstr_leb_trans _ _ _ Hyx Hxz) in Hyz. discriminate.
      * reflexivity.
    + rewrite Hyz, Hxz, IH. reflexivity.
Qed.

Theorem sort_strings_perm l l' : Permutation l l' -> sort_strings l = sort_strings l'.
Proof.
  unfold sort_strings. induction 1; cbn [fold_right].
  - reflexivity.
  - rewrite IHPermutation. reflexivity.
  - apply insert_sorted_comm.
  - congruence.
Qed.

Lemma Zcompare_eq_sym x y : (match (x ?= y)%Z with Eq => true | _ => false end) = (match (y ?= x)%Z with Eq => true | _ => false end).
Proof. rewrite (Z.compare_antisym x y). destruct (x ?= y)%Z; reflexivity. Qed.

Lemma fl_eqb_sym f g : fl_eqb f g = fl_eqb g f.
Proof.
  unfold fl_eqb. destruct f as [|a|a|m1 e1], g as [|c|c|m2 e2]; cbn [fl_cmp]; try reflexivity.
  - destruct a, c; reflexivity.
  - destruct a; reflexivity.
  - destruct a; reflexivity.
  - destruct c; reflexivity.
  - destruct (m2 <? 0)%Z; reflexivity.
  - destruct c; reflexivity.
  - destruct (m1 <? 0)%Z; reflexivity.
  - rewrite (Z.min_comm e2 e1). apply Zcompare_eq_sym.
Qed.

Theorem equals_sym a c : equals a c = equals c a.
Proof.
  destruct a, c; cbn [equals]; try reflexivity.
  - destruct x, x0; reflexivity.
  - apply Z.eqb_sym.
  - apply fl_eqb_sym.
  - apply bstr_eqb_sym.
  - apply N.eqb_sym.
  - apply N.eqb_sym.
Qed.

Lemma fl_eqb_refl f : f <> FNaN -> fl_eqb f f = true.
Proof.
  unfold fl_eqb. destruct f as [|a|a|m e]; cbn [fl_cmp]; try congruence; intros _.
  - destruct a; reflexivity.
  - rewrite Z.compare_refl. reflexivity.
Qed.

(* Equals is reflexive on every value except NaN (lists and maps: identity) *)
Theorem equals_refl_iff v : equals v v = true <-> v <> VFloat FNaN.
Proof.
  destruct v; cbn [equals]; try (split; [congruence | reflexivity]).
  - destruct x; (split; [congruence | reflexivity]).
  - rewrite Z.eqb_refl. split; [congruence | reflexivity].
  - destruct f; try (rewrite fl_eqb_refl by congruence; split; [congruence | reflexivity]).
    cbn. split; congruence.
  - rewrite bstr_eqb_refl. split; [congruence | reflexivity].
  - rewrite N.eqb_refl. split; [congruence | reflexivity].
  - rewrite N.eqb_refl. split; [congruence | reflexivity].
Qed.

(* values of different kinds are never equal, except Int against Float *)
Definition vkind (v : value) : N :=
  match v with
  | VUndef => 0 | VNull => 1 | VBool _ => 2 | VInt _ => 3 | VFloat _ => 4 | VStr _ => 5 | VList _ _ => 6 | VMap _ _ => 7
  end.
Definition numeric (v : value) : bool := match v with VInt _ | VFloat _ => true | _ => false end.

Theorem equals_kinds a c : equals a c = true -> vkind a = vkind c \/ (numeric a = true /\ numeric c = true).
Proof. destruct a, c; cbn; intros H; try discriminate; auto. Qed.

(* the real number m * 2^e equals the integer x *)
Definition fl_is_int (f : fl) (x : Z) : Prop :=
  match f with
  | FZero _ => x = 0%Z
  | FFin m e => (m * 2 ^ (Z.max e 0) = x * 2 ^ (Z.max (- e) 0))%Z
  | _ => False
  end.

Lemma strip2_spec p e : let '(q, e') := strip2 p e in
  (Zpos p * 2 ^ e' = Zpos q * 2 ^ e' * 2 ^ (e' - e) /\ e <= e' /\ Zpos q <= Zpos p /\ Zpos p = Zpos q * 2 ^ (e' - e))%Z.
Proof.
  revert e; induction p as [p IH|p IH|]; intros e; cbn [strip2].
  - replace (e - e)%Z with 0%Z by lia. cbn. lia.
  - specialize (IH (e + 1)%Z). destruct (strip2 p (e + 1)) as [q e'].
    destruct IH as (_ & H2 & H3 & H4).
    assert (Zpos p~0 = Zpos q * 2 ^ (e' - e))%Z.
    { replace (e' - e)%Z with (Z.succ (e' - (e + 1)))%Z by lia. rewrite Z.pow_succ_r by lia. lia. }
    repeat split; try lia. rewrite H at 1. lia.
  - replace (e - e)%Z with 0%Z by lia. cbn. lia.
Qed.

Lemma strip2_odd p e : let '(q, _) := strip2 p e in match q with xO _ => False | _ => True end.
Proof. revert e; induction p; intros e; cbn [strip2]; auto. apply IHp. Qed.

Lemma pow2_pos k : (0 <= k -> 0 < 2 ^ k)%Z.
Proof. intros. apply Z.pow_pos_nonneg; lia. Qed.

Lemma pow2_split a c : (0 <= a -> 0 <= c -> 2 ^ (a + c) = 2 ^ a * 2 ^ c)%Z.
Proof. intros. apply Z.pow_add_r; lia. Qed.

(* x = q * 2^k with |x| <= 2^53 is accepted by mk_fl *)
Lemma strip_accept p : (Zpos p <= two53)%Z ->
  let '(q, k) := strip2 p 0 in
  ((Zpos q <? two53) && (-1000 <? k) && (k <? 900) = true /\ 0 <= k /\ Zpos p = Zpos q * 2 ^ k)%Z.
Proof.
  intros Hx.
  pose proof (strip2_spec p 0) as H. pose proof (strip2_odd p 0) as Ho.
  destruct (strip2 p 0) as [q k]. destruct H as (_ & Hk & Hq & Hp).
  replace (k - 0)%Z with k in Hp by lia.
  assert (Hk53 : (k <= 53)%Z).
  { destruct (Z.le_gt_cases k 53) as [|Hgt]; [assumption|].
    assert (2 ^ 54 <= 2 ^ k)%Z by (apply Z.pow_le_mono_r; lia).
    change (2 ^ 54)%Z with 18014398509481984%Z in *. unfold two53 in Hx. nia. }
  assert (Hq53 : (Zpos q < two53)%Z).
  { destruct (Z.eq_dec k 0) as [->|Hk0].
    - change (2 ^ 0)%Z with 1%Z in Hp. destruct (Z.eq_dec (Zpos q) two53) as [He|]; [|unfold two53 in *; lia].
      exfalso. unfold two53 in He. injection He as ->. exact Ho.
    - assert (2 <= 2 ^ k)%Z by (change 2%Z with (2 ^ 1)%Z at 1; apply Z.pow_le_mono_r; lia).
      unfold two53 in *. nia. }
  replace (Zpos q <? two53)%Z with true by (symmetry; apply Z.ltb_lt; assumption).
  replace (-1000 <? k)%Z with true by (symmetry; apply Z.ltb_lt; lia).
  replace (k <? 900)%Z with true by (symmetry; apply Z.ltb_lt; lia).
  cbn [andb]. repeat split; lia.
Qed.

(* up to 2^53 the conversion is exact: nothing is rounded *)
Lemma fl_of_int_exact x : (Z.abs x <= two53)%Z -> fl_of_int x = mk_fl x 0.
Proof.
  intros Hx. unfold fl_of_int, mk_fl_r.
  destruct (Z.eq_dec (Z.abs x) two53) as [E|E].
  - assert (Hc : x = two53 \/ x = (- two53)%Z) by lia. destruct Hc as [-> | ->]; reflexivity.
  - unfold round53. assert (HL : (Z.log2 (Z.abs x) + 1 <= 53)%Z).
    { destruct (Z.eq_dec x 0) as [->|N0]; [cbn; lia|].
      assert (Z.log2 (Z.abs x) < 53)%Z by (apply Z.log2_lt_pow2; [lia|change (2 ^ 53)%Z with two53; lia]). lia. }
    replace (Z.log2 (Z.abs x) + 1 <=? 53)%Z with true by lia. reflexivity.
Qed.

Lemma fl_of_int_small x : (Z.abs x <= two53)%Z ->
  match fl_of_int x with
  | Some (FZero false) => x = 0%Z
  | Some (FFin q k) => (0 <= k /\ x = q * 2 ^ k /\ q <> 0)%Z
  | _ => False
  end.
Proof.
  intros Hx. rewrite (fl_of_int_exact x Hx). unfold mk_fl. destruct x as [|p|p]; [reflexivity|..].
  (* either sign: the magnitude p is what is normalised *)
  all: pose proof (strip_accept p) as H; destruct (strip2 p 0) as [q k].
  all: destruct H as (-> & Hk & Hp); [lia|]; repeat split; lia.
Qed.

Lemma fl_eqb_fin q k m e :
  fl_eqb (FFin q k) (FFin m e) = true <-> (q * 2 ^ (k - Z.min k e) = m * 2 ^ (e - Z.min k e))%Z.
Proof.
  unfold fl_eqb. cbn [fl_cmp].
  destruct (Z.compare_spec (q * 2 ^ (k - Z.min k e)) (m * 2 ^ (e - Z.min k e))); split; congruence || lia.
Qed.

(* canonical floats: the mantissa of a finite non-zero float is odd *)
Definition fl_canon (f : fl) : Prop := match f with FFin m _ => Z.odd m = true | _ => True end.

Theorem equals_int_float x f : fl_canon f -> (Z.abs x <= two53)%Z ->
  (equals (VInt x) (VFloat f) = true <-> fl_is_int f x).
Proof.
  intros Hc Hx. cbn [equals]. unfold int_float_eqb.
  pose proof (fl_of_int_small x Hx) as Hs.
  destruct (fl_of_int x) as [[| |[|]|q k]|]; try contradiction.
  - (* x = 0 *)
    subst x. destruct f as [|c| |m e]; cbn [fl_is_int]; try (split; [discriminate | contradiction]).
    + destruct c; (split; [discriminate | contradiction]).
    + split; intros; reflexivity.
    + cbn in Hc. assert (m <> 0)%Z by (intros ->; discriminate).
      assert (0 < 2 ^ Z.max e 0)%Z by (apply pow2_pos; lia).
      unfold fl_eqb; cbn [fl_cmp]. destruct (m <? 0)%Z; split; try discriminate; intros; nia.
  - destruct Hs as (Hk & Hxq & Hq0).
    destruct f as [|c|n|m e]; cbn [fl_is_int]; try (split; [discriminate | contradiction]).
    + unfold fl_eqb; cbn [fl_cmp]. destruct c; (split; [discriminate | contradiction]).
    + unfold fl_eqb; cbn [fl_cmp]. assert (0 < 2 ^ k)%Z by (apply pow2_pos; lia).
      destruct (q <? 0)%Z; split; try discriminate; intros; nia.
    + rewrite fl_eqb_fin. subst x.
      destruct (Z.le_gt_cases 0 e) as [He|He].
      * replace (Z.max e 0) with e by lia. replace (Z.max (- e) 0) with 0%Z by lia.
        change (2 ^ 0)%Z with 1%Z. rewrite Z.mul_1_r.
        set (mu := Z.min k e).
        assert (Hmu : (0 <= mu /\ mu <= k /\ mu <= e)%Z) by (unfold mu; lia).
        replace (2 ^ k)%Z with (2 ^ (k - mu) * 2 ^ mu)%Z by (rewrite <- pow2_split by lia; f_equal; lia).
        replace (2 ^ e)%Z with (2 ^ (e - mu) * 2 ^ mu)%Z by (rewrite <- pow2_split by lia; f_equal; lia).
        assert (0 < 2 ^ mu)%Z by (apply pow2_pos; lia).
        generalize dependent (2 ^ mu)%Z. generalize (2 ^ (k - mu))%Z (2 ^ (e - mu))%Z.
        intros A B M HM. split; intros Heq; [nia|]. apply (Z.mul_reg_r _ _ M); [lia | nia].
      * replace (Z.max e 0) with 0%Z by lia. replace (Z.max (- e) 0) with (- e)%Z by lia.
        change (2 ^ 0)%Z with 1%Z. rewrite Z.mul_1_r.
        replace (Z.min k e) with e by lia. replace (e - e)%Z with 0%Z by lia.
        change (2 ^ 0)%Z with 1%Z. rewrite Z.mul_1_r.
        replace (k - e)%Z with (k + - e)%Z by lia. rewrite pow2_split by lia.
        split; intros; lia.
Qed.

(* the same from the Float side *)
Corollary equals_float_int x f : fl_canon f -> (Z.abs x <= two53)%Z ->
  (equals (VFloat f) (VInt x) = true <-> fl_is_int f x).
Proof. intros. rewrite equals_sym. apply equals_int_float; assumption. Qed.

Definition falsy_value (v : value) : Prop :=
  v = VUndef \/ v = VNull \/ v = VBool false \/ v = VInt 0 \/ (exists s, v = VFloat (FZero s)) \/ v = VFloat FNaN \/ v = VStr [].

Theorem truthy_table v : truthy v = false <-> falsy_value v.
Proof.
  unfold falsy_value. split.
  - destruct v as [| |[|]|z|f|[|c s]|id l|id m]; cbn [truthy]; try discriminate; intros H.
    + left; reflexivity.
    + right; left; reflexivity.
    + do 2 right; left; reflexivity.
    + do 3 right; left. apply Bool.negb_false_iff, Z.eqb_eq in H. rewrite H. reflexivity.
    + destruct f as [|s|s|m e]; try discriminate H.
      * do 5 right; left; reflexivity.
      * do 4 right; left; exists s; reflexivity.
    + do 6 right; reflexivity.
  - intros [->|[->|[->|[->|[[s ->]|[->| ->]]]]]]; reflexivity.
Qed.

(* the two inner loops of to_string, named *)
Definition list_items (f : nat) : list value -> outcome (list bstr) :=
  fix go (l : list value) : outcome (list bstr) :=
    match l with
    | [] => Ok []
    | x :: r => s <- to_string f x ;; rs <- go r ;; Ok (s :: rs)
    end.

Definition entry_string (f : nat) (x : value) : outcome bstr :=
  match x with VUndef => Ok s_undefined | _ => to_string f x end.

Definition map_items (f : nat) : list (bstr * value) -> outcome (list bstr) :=
  fix go (m : list (bstr * value)) : outcome (list bstr) :=
    match m with
    | [] => Ok []
    | (k, x) :: r => s <- entry_string f x ;; rs <- go r ;; Ok ((k ++ s_colon_sp ++ s) :: rs)
    end.

Lemma list_items_cons f x r :
  list_items f (x :: r) = (s <- to_string f x ;; rs <- list_items f r ;; Ok (s :: rs)).
Proof. reflexivity. Qed.
Lemma map_items_cons f k x r :
  map_items f ((k, x) :: r) = (s <- entry_string f x ;; rs <- map_items f r ;; Ok ((k ++ s_colon_sp ++ s) :: rs)).
Proof. reflexivity. Qed.

Lemma to_string_list f i l :
  to_string (S f) (VList i l) = (items <- list_items f l ;; Ok ([91] ++ join s_comma_sp items ++ [93])).
Proof. reflexivity. Qed.

Lemma to_string_map f i m :
  to_string (S f) (VMap i m) = (items <- map_items f m ;; Ok ([123] ++ join s_comma_sp (sort_strings items) ++ [125])).
Proof. reflexivity. Qed.

Lemma bind_ok {A B} (x : outcome A) (g : A -> outcome B) r :
  bind x g = Ok r -> exists a, x = Ok a /\ g a = Ok r.
Proof. destruct x; cbn; try discriminate. eauto. Qed.

(* v' is v with the entries of its maps (at any depth) listed in another order *)
Inductive vperm : value -> value -> Prop :=
| vp_refl v : vperm v v
| vp_list i l l' : Forall2 vperm l l' -> vperm (VList i l) (VList i l')
| vp_map i m m1 m' :
    Forall2 (fun a c => fst a = fst c /\ vperm (snd a) (snd c)) m m1 ->
    Permutation m1 m' -> vperm (VMap i m) (VMap i m').

Lemma map_items_perm f m m' ss :
  Permutation m m' -> map_items f m = Ok ss -> exists ss', map_items f m' = Ok ss' /\ Permutation ss ss'.
Proof.
  intros HP; revert ss; induction HP as [|[k x] m m' HP IH|[k x] [k2 x2] m|m m2 m3 _ IH1 _ IH2]; intros ss H.
  - exists ss. split; [assumption | apply Permutation_refl].
  - rewrite ?map_items_cons in *. apply bind_ok in H as (s & Hs & H). apply bind_ok in H as (rs & Hrs & H).
    injection H as <-. destruct (IH _ Hrs) as (rs' & Hrs' & HP').
    rewrite Hs, Hrs'. cbn. eexists; split; [reflexivity | constructor; assumption].
  - rewrite ?map_items_cons in *. apply bind_ok in H as (s2 & Hs2 & H). apply bind_ok in H as (rs0 & H0 & H).
    injection H as <-. apply bind_ok in H0 as (s & Hs & H0). apply bind_ok in H0 as (rs & Hrs & H0).
    injection H0 as <-. rewrite Hs, Hs2, Hrs. cbn. eexists; split; [reflexivity | apply perm_swap].
  - destruct (IH1 _ H) as (s2 & H2 & P2). destruct (IH2 _ H2) as (s3 & H3 & P3).
    exists s3. split; [assumption | eapply Permutation_trans; eassumption].
Qed.

Theorem to_string_vperm f : forall v v' s, vperm v v' -> to_string f v = Ok s -> to_string f v' = Ok s.
Proof.
  induction f as [|f IH]; intros v v' s HV H; [discriminate|].
  destruct HV as [v|i l l' HF|i m m1 m' HF HP]; [assumption| |].
  - rewrite to_string_list in *. apply bind_ok in H as (items & Hi & H). injection H as <-.
    assert (list_items f l' = Ok items) as ->; [|reflexivity].
    revert items Hi. induction HF as [|x x' l l' Hx _ IHF]; intros items Hi; [assumption|].
    rewrite ?list_items_cons in *. apply bind_ok in Hi as (s & Hs & Hi). apply bind_ok in Hi as (rs & Hrs & Hi).
    injection Hi as <-. rewrite (IH _ _ _ Hx Hs), (IHF _ Hrs). reflexivity.
  - rewrite to_string_map in *. apply bind_ok in H as (items & Hi & H). injection H as <-.
    assert (map_items f m1 = Ok items) as H1.
    { clear HP. revert items Hi. induction HF as [|[k x] [k' x'] m m1 [Hk Hx] _ IHF]; intros items Hi; [assumption|].
      cbn [fst snd] in Hk, Hx. subst k'.
      rewrite ?map_items_cons in *. apply bind_ok in Hi as (s & Hs & Hi). apply bind_ok in Hi as (rs & Hrs & Hi).
      injection Hi as <-. rewrite (IHF _ Hrs).
      assert (entry_string f x' = Ok s) as ->; [|reflexivity].
      unfold entry_string in *. destruct Hx as [x|? ? ? HF'|? ? ? ? HF' HP'].
      - assumption.
      - eapply IH; [apply vp_list; eassumption | exact Hs].
      - eapply IH; [eapply vp_map; eassumption | exact Hs]. }
    destruct (map_items_perm f _ _ _ HP H1) as (items' & -> & HPi).
    cbn. rewrite (sort_strings_perm _ _ HPi). reflexivity.
Qed.

(* enough fuel is enough *)
Lemma fold_max_le {A} (d : A -> nat) x l : In x l -> (d x <= fold_right (fun y acc => Nat.max (d y) acc) 0 l)%nat.
Proof. induction l as [|y l IH]; cbn; [tauto|]. intros [->|H]; [lia | specialize (IH H); lia]. Qed.

Lemma to_string_fuel : forall f' f v s, to_string f v = Ok s -> (depth v < f')%nat -> to_string f' v = Ok s.
Proof.
  induction f' as [|f' IH]; intros f v s H Hd; [lia|].
  destruct f as [|f]; [discriminate|].
  destruct v as [| |x|z|x|t|i l|i m]; try exact H.
  - rewrite to_string_list in *. apply bind_ok in H as (items & Hi & H). injection H as <-.
    assert (list_items f' l = Ok items) as ->; [|reflexivity].
    assert (Hall : forall x, In x l -> (depth x < f')%nat).
    { intros x Hx. pose proof (fold_max_le depth x l Hx). cbn [depth] in Hd. lia. }
    clear Hd. revert items Hi. induction l as [|x l IHl]; intros items Hi; [assumption|].
    rewrite ?list_items_cons in *. apply bind_ok in Hi as (s & Hs & Hi). apply bind_ok in Hi as (rs & Hrs & Hi).
    injection Hi as <-. rewrite (IH _ _ _ Hs (Hall x (or_introl eq_refl))), (IHl (fun y Hy => Hall y (or_intror Hy)) _ Hrs).
    reflexivity.
  - rewrite to_string_map in *. apply bind_ok in H as (items & Hi & H). injection H as <-.
    assert (map_items f' m = Ok items) as ->; [|reflexivity].
    assert (Hall : forall kx, In kx m -> (depth (snd kx) < f')%nat).
    { intros kx Hx. pose proof (fold_max_le (fun kx => depth (snd kx)) kx m Hx). cbn [depth] in Hd. lia. }
    clear Hd. revert items Hi. induction m as [|[k x] m IHm]; intros items Hi; [assumption|].
    rewrite ?map_items_cons in *. apply bind_ok in Hi as (s & Hs & Hi). apply bind_ok in Hi as (rs & Hrs & Hi).
    injection Hi as <-. rewrite (IHm (fun y Hy => Hall y (or_intror Hy)) _ Hrs).
    assert (entry_string f' x = Ok s) as ->; [|reflexivity].
    unfold entry_string in *. destruct x; try exact Hs;
      apply (IH _ _ _ Hs (Hall (k, _) (or_introl eq_refl))).
Qed.

(* printing does not depend on the order in which the entries of any map are enumerated *)
Theorem value_string_vperm v v' s : vperm v v' -> value_string v = Ok s -> value_string v' = Ok s.
Proof.
  unfold value_string. intros HV H. apply (to_string_fuel _ (S (depth v))); [|lia].
  eapply to_string_vperm; eassumption.
Qed.

Lemma Forall2_self {A} (R : A -> A -> Prop) l : (forall x, R x x) -> Forall2 R l l.
Proof. intros HR. induction l; constructor; auto. Qed.

(* the statement for one map: any two enumerations of the same entries print alike *)
Theorem map_string_order_independent i m m' s :
  Permutation m m' -> (value_string (VMap i m) = Ok s <-> value_string (VMap i m') = Ok s).
Proof.
  intros HP. split; apply value_string_vperm; eapply vp_map; try eassumption.
  - apply Forall2_self. intros; split; [reflexivity | apply vp_refl].
  - apply Forall2_self. intros; split; [reflexivity | apply vp_refl].
  - apply Permutation_sym. assumption.
Qed.

(* printing is a function: the model has no hidden state (stated for the record) *)
Theorem to_string_deterministic v s1 s2 : value_string v = Ok s1 -> value_string v = Ok s2 -> s1 = s2.
Proof. congruence. Qed.
