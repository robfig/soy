(* The scanner model inside a print command "{" expr |name:arg,arg ... "}" as printed by PrintNode.String():
   the Spec's items of the command as (type, text) pairs, the first byte of a printed expression, the directive
   lists composed with the combinators of Proofs/LexPrint.v, and the steps in front of the tag (lexText at "{",
   lexLeftDelim, lexBeginTag).  The whole command in file mode is the one-command case of Proofs/LexBodyC17Body.v. *)
From Soy Require Import Model.Bytes Model.Utf8 Model.Num Model.Values Model.Outcome Model.Ast Model.Token Model.NumLit Model.Quote
  Model.AstPrint Generated.Tables Model.Lexer Spec.ExprSyntax Spec.Text
  Proofs.Utf8Proofs Proofs.ExprParserProofs Proofs.LexerPrim Proofs.LexerStates Proofs.LexerProofs
  Proofs.LexTokens Proofs.LexNumbers Proofs.LexStrings Proofs.LexExpr Proofs.LexPrint Proofs.LexPrintMain Proofs.LexPrintTop
  Proofs.LexBodyText Proofs.LexBodyTop Proofs.LexBodyCmd Proofs.LexBodyC17.
From Coq Require Import ZifyBool Lia.
Open Scope Z_scope.

(* lexical well-formedness of a print command: the expression and every directive argument as for
   expressions; directive names are ASCII words that are not keywords *)
Definition lex_ok_directive (d : node) : Prop :=
  match d with NDirective _ name args => plain_word name /\ allP lex_ok args | _ => False end.
Definition lex_ok_print (n : node) : Prop :=
  match n with NPrint _ arg dirs => lex_ok arg /\ allP lex_ok_directive dirs | _ => False end.

Definition T_pipe : N * bstr := (itemPipe, [124%N]).
Definition dir_toks (name : bstr) (args : list node) : list (N * bstr) :=
  [T_pipe; (itemIdent, name)] ++ match args with [] => [] | _ => [T_col] ++ sepj [T_com] (map toks args) end.
Definition toks_directive (d : node) : list (N * bstr) :=
  match d with NDirective _ name args => dir_toks name args | _ => [] end.

Lemma sepj_flat a0 rest : toks a0 ++ flat_map (fun c => T_com :: toks c) rest = sepj [T_com] (map toks (a0 :: rest)).
Proof.
  revert a0. induction rest as [|a1 r IH]; intros a0; [cbn; rewrite app_nil_r; reflexivity|].
  cbn [flat_map]. change (map toks (a0 :: a1 :: r)) with (toks a0 :: map toks (a1 :: r)).
  change (sepj [T_com] (toks a0 :: map toks (a1 :: r))) with (toks a0 ++ [T_com] ++ sepj [T_com] (map toks (a1 :: r))).
  rewrite <- IH. reflexivity.
Qed.

Lemma dargs_later path : forall args i,
  map tv (List.concat (mapi_from (fun (i : nat) (c : node) =>
     (if Nat.eqb i 0 then T_colon else T_comma) :: parens (sty_min (i :: path)) (show sty_min (i :: path) c)) (S i) args))
  = flat_map (fun c => T_com :: toks c) args.
Proof.
  induction args as [|a r IH]; intros i; [reflexivity|].
  cbn [mapi_from List.concat flat_map Nat.eqb]. rewrite map_app, IH. cbn [map tv t_typ t_val T_comma tk parens sty_min].
  rewrite toks_path. reflexivity.
Qed.

Lemma show_directive_toks path d : map tv (show_directive sty_min path d) = toks_directive d.
Proof.
  destruct d; try reflexivity. cbn [show_directive toks_directive map tv t_typ t_val tk]. unfold dir_toks. cbn [app]. do 2 f_equal.
  destruct args as [|a0 r]; [reflexivity|].
  cbn [mapi_from List.concat Nat.eqb]. rewrite map_app, dargs_later. cbn [map tv t_typ t_val T_colon tk parens sty_min].
  rewrite toks_path. cbn [app]. f_equal. apply sepj_flat.
Qed.

Lemma print_toks p arg dirs :
  map tv (tokens_of_print (NPrint p arg dirs)) = toks arg ++ flat_map toks_directive dirs ++ [(itemRightDelim, [125%N])].
Proof.
  unfold tokens_of_print. cbn [show_print parens sty_min]. rewrite !map_app, toks_path. f_equal. f_equal.
  generalize 0%nat as i. induction dirs as [|d r IH]; intros i; [reflexivity|].
  cbn [mapi_from List.concat flat_map]. rewrite map_app, show_directive_toks, IH. reflexivity.
Qed.

(* the first byte of a printed expression is one lexBeginTag lets pass: ASCII, and none of { / \ *)
Definition tag_head (s : bstr) : Prop :=
  exists c r, s = c :: r /\ (c < 128)%N /\ c <> 123%N /\ c <> 47%N /\ c <> 92%N.

Lemma print_tag_head e s : wf_expr e -> lex_ok e -> print_node e = Some s -> tag_head s.
Proof. intros Hwf Hlo Hp. destruct (print_first e s Hwf Hlo Hp) as (c & r & E & A & B & C & D & _). exists c, r. auto. Qed.

Section Cmd.
Variable uni_letter uni_digit : Z -> bool.
Hypothesis letter_ascii : forall c, (c < 128)%N -> uni_letter (Z.of_N c) = ((65 <=? c) && (c <=? 90) || (97 <=? c) && (c <=? 122))%N.
Hypothesis digit_ascii : forall c, (c < 128)%N -> uni_digit (Z.of_N c) = digit_b c.
Hypothesis letter_eof : uni_letter (-1) = false.
Hypothesis digit_eof : uni_digit (-1) = false.
Variable inp : bstr.
Notation L := (lexes uni_letter uni_digit inp 0).
Notation W lem := (lem uni_letter uni_digit letter_ascii digit_ascii letter_eof digit_eof inp 0).
Notation steps := (steps uni_letter uni_digit inp 0).
Notation span := (span inp).
Notation ilen := (Z.of_nat (length inp)).

Lemma L_pipe : L anyty anys [124%N] [T_pipe] opnd.
Proof. apply (W L_eq_opnd _ _ _ _ _ (W lexes_punct 124%N itemPipe eq_refl) eq_refl). Qed.

Lemma L_colon : L term anys [58%N] [T_col] opnd.
Proof. apply (W L_anyP). apply (W L_eq_opnd _ _ _ _ _ (W lexes_punct 58%N itemColon eq_refl) eq_refl). Qed.

(* e1,e2,...: a non-empty list of expressions separated by commas *)
Lemma L_exprs vals l : vals <> [] -> allP wf_expr vals -> allP lex_ok vals -> opt_all (map print_node vals) = Some l ->
  L opnd fexp (join [44%N] l) (sepj [T_com] (map toks vals)) term.
Proof.
  intros Hne Hwf Hlo El. destruct (opt_all_items print_node toks vals l El) as (A1 & A2 & A3).
  pose proof (W L_sepj [44%N] [T_com] (W L_comma) (fun s => fexp_head 44 s eq_refl) (combine l (map toks vals))) as H.
  rewrite A1, A2 in H. apply H.
  - intros E. rewrite E in A2. symmetry in A2. apply map_eq_nil in A2. contradiction.
  - intros it Hin. destruct (A3 it Hin) as (x & Hx & Hpx & ->).
    apply (W lex_print); [eapply allP_In; eassumption|eapply allP_In; eassumption|exact Hpx].
Qed.

(* one directive *)
Lemma L_directive d txt : wf_directive d -> lex_ok_directive d -> print_node d = Some txt ->
  L term fexp txt (toks_directive d) term /\ exists r, txt = 124%N :: r.
Proof.
  destruct d; cbn [wf_directive lex_ok_directive]; try contradiction. intros Hwf [Hn Hlo] Hp. cbn [print_node] in Hp.
  cbn [toks_directive]. unfold dir_toks.
  assert (Hid : L opnd fexp name [(itemIdent, name)] term).
  { apply (W L_anyP). refine (W L_weaken _ _ _ _ _ _ _ _ (W L_ident name Hn) _ _ _); auto. apply fexp_stops. }
  assert (Hname : L term fexp ([124%N] ++ name) ([T_pipe] ++ [(itemIdent, name)]) term).
  { apply (W L_anyP). refine (W L_seq _ _ _ _ _ _ _ _ _ _ L_pipe Hid _ _); [intros; exact I|auto]. }
  destruct args as [|a0 args0] eqn:Eargs.
  - injection Hp as <-. split; [|eexists; reflexivity]. rewrite app_nil_r. exact Hname.
  - rewrite <- Eargs in *. destruct (opt_all (map print_node args)) as [l|] eqn:El; cbn [obind] in Hp; [|discriminate].
    injection Hp as <-. split; [|eexists; reflexivity].
    pose proof (L_exprs args l ltac:(rewrite Eargs; discriminate) Hwf Hlo El) as Hargs.
    replace ([124%N] ++ name ++ [58%N] ++ join s_comma l) with (([124%N] ++ name) ++ [58%N] ++ join [44%N] l)
      by (rewrite <- !app_assoc; reflexivity).
    replace (match args with [] => [] | _ :: _ => [T_col] ++ sepj [T_com] (map toks args) end)
      with ([T_col] ++ sepj [T_com] (map toks args)) by (rewrite Eargs; reflexivity).
    refine (W L_seq _ _ _ _ _ _ _ _ _ _ Hname (W L_seq _ _ _ _ _ _ _ _ _ _ L_colon Hargs _ _) _ _).
    + intros; exact I.
    + auto.
    + intros s _. exact (fexp_head 58 _ eq_refl).
    + auto.
Qed.

(* the directives of a print command, one after the other *)
Lemma L_dirs : forall dirs l, allP wf_directive dirs -> allP lex_ok_directive dirs -> opt_all (map print_node dirs) = Some l ->
  L term fexp (concat_b l) (flat_map toks_directive dirs) term /\ (l = [] \/ exists r, concat_b l = 124%N :: r).
Proof.
  induction dirs as [|d r IH]; intros l Hwf Hlo Hl; cbn [map opt_all] in Hl.
  - injection Hl as <-. split; [apply (W L_nil)|left; reflexivity].
  - destruct (print_node d) as [s|] eqn:Ed; [|discriminate]. destruct (opt_all (map print_node r)) as [lr|] eqn:Er; [|discriminate].
    injection Hl as <-. destruct Hwf as [Hw1 Hw2]. destruct Hlo as [Hl1 Hl2].
    destruct (L_directive d s Hw1 Hl1 Ed) as (Hd & (r0 & Hr0)). destruct (IH lr Hw2 Hl2 eq_refl) as (Hr & Hhd).
    cbn [concat_b flat_map]. split; [|right; exists (r0 ++ concat_b lr); rewrite Hr0; reflexivity].
    refine (W L_seq _ _ _ _ _ _ _ _ _ _ Hd Hr _ _); [|auto].
    intros s0 Hs0. destruct Hhd as [->|(r1 & ->)]; [exact Hs0|exact (fexp_head 124 _ eq_refl)].
Qed.

(* lexText at "{" with nothing pending, lexLeftDelim, lexBeginTag: "{" is sent and the scanner is inside the tag *)
Lemma open_tag l c s : span l [] (123%N :: c :: s) -> (c < 128)%N -> c <> 123%N -> c <> 47%N -> c <> 92%N -> l_dd l = false ->
  exists l', steps 3 LText l = Ok (LInsideTag, l') /\ span l' [] (c :: s) /\ sent itemLeftDelim [123%N] l l'.
Proof.
  intros Hs Hc H1 H2 H3 Hdd.
  destruct (lb17_text_tag uni_letter uni_digit letter_eof digit_eof inp l (c :: s) Hs) as (l1 & Hst1 & Hs1 & Ho1 & Hla1 & Hdd1).
  destruct (delim_begin uni_letter uni_digit letter_ascii digit_ascii letter_eof digit_eof inp l1 c s Hs1 Hc H1 H2)
    as (l2 & p & Hst2 & Hs2 & Ho2 & Hla2 & Hdd2).
  rewrite (proj2 (N.eqb_neq c 92) H3) in Hst2.
  exists l2. split; [change 3%nat with (1 + 2)%nat; rewrite (steps_app _ _ _ _ 1 2 _ _ _ _ Hst1); exact Hst2|].
  split; [exact Hs2|]. exists p. rewrite Ho2, Hla2, Ho1. repeat split. congruence.
Qed.

End Cmd.
