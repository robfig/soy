(* Float round trip, part 4: Num.fl_to_string is total on the floats of the model -- for every odd mantissa
   below 2^53 and every exponent of Num.mk_fl's window the decimal exponent is found among the four
   candidates around the estimate from the bit lengths, and the digit search ends with 17 digits at the
   latest (10^16 times the width of the rounding interval exceeds the float: 4 * 10^16 > 2^55). *)
From Soy Require Import Model.Bytes Model.Num Model.NumLit Proofs.NumLitProofs Proofs.FloatRtRound Proofs.FloatRtDigits.
From Coq Require Import ZifyBool Lia.
Open Scope Z_scope.

(* with 17 digits one of the two neighbours of x is inside the interval *)
Lemma rt_sf_last k incl x lo hi den :
  0 < den -> lo < x < hi -> ge_pow10 x den (k - 1) = true -> x < (hi - lo) * 10 ^ 16 ->
  let p := 17 - k in
  let tn := x * rt_up 10 p in
  let td := den * rt_up 10 (- p) in
  tn mod td <> 0 ->
  in_interval incl lo hi den (tn / td) p = true \/ in_interval incl lo hi den (tn / td + 1) p = true.
Proof.
  intros Hden Hx Hge Hw. cbv zeta. set (p := 17 - k).
  rewrite rt_ge_pow10_up in Hge. apply Z.leb_le in Hge.
  pose proof (rt_up_add 10 (k - 1) p) as EA. replace (k - 1 + p) with 16 in EA by (unfold p; lia).
  change (rt_up 10 (- (16))) with 1 in EA. change (rt_up 10 16) with (10 ^ 16) in EA.
  pose proof (rt_up_pos 10 p ltac:(lia)) as HP. pose proof (rt_up_pos 10 (- p) ltac:(lia)) as HQ.
  pose proof (rt_up_pos 10 (k - 1) ltac:(lia)) as HA. pose proof (rt_up_pos 10 (- (k - 1)) ltac:(lia)) as HA'.
  set (P := rt_up 10 p) in *. set (Q := rt_up 10 (- p)) in *. set (A := rt_up 10 (k - 1)) in *. set (A' := rt_up 10 (- (k - 1))) in *.
  set (T := 10 ^ 16) in *.
  (* the candidates are closer together than the interval is wide *)
  assert (D : den * Q < (hi - lo) * P).
  { assert (den * A * Q <= x * A' * Q) by (apply Z.mul_le_mono_nonneg_r; lia).
    assert (x * (A' * Q) < (hi - lo) * T * (A' * Q)) by (apply Z.mul_lt_mono_pos_r; [apply Z.mul_pos_pos|]; lia).
    apply (Z.mul_lt_mono_pos_r A); [lia|]. replace ((hi - lo) * P * A) with ((hi - lo) * (A * P * 1)) by ring. rewrite EA. lia. }
  assert (Htd : 0 < den * Q) by (apply Z.mul_pos_pos; lia). intros Hr.
  pose proof (Z.div_mod (x * P) (den * Q) ltac:(lia)) as Hdm. pose proof (Z.mod_pos_bound (x * P) (den * Q) Htd) as Hrb.
  set (cd := x * P / (den * Q)) in *. set (r := (x * P) mod (den * Q)) in *.
  assert (L1 : lo * P < x * P) by (apply Z.mul_lt_mono_pos_r; lia).
  assert (L2 : x * P < hi * P) by (apply Z.mul_lt_mono_pos_r; lia).
  destruct (Z.ltb_spec (lo * P) (cd * Q * den)) as [C|C]; [left|right];
    (apply rt_in_strict; rewrite rt_scaled_cmp_up; fold P Q; [apply Z.compare_gt_iff|apply Z.compare_lt_iff]; lia).
Qed.

Lemma rt_sf_total k incl x lo hi den :
  0 < den -> lo < x < hi -> ge_pow10 x den (k - 1) = true -> x < (hi - lo) * 10 ^ 16 ->
  forall fuel n, 1 <= n <= 17 -> 18 <= n + Z.of_nat fuel ->
  shortest_from fuel n k incl x lo hi den <> None.
Proof.
  intros Hden Hx Hge Hw. induction fuel as [|f IH]; intros n Hn Hf; [lia|].
  cbn [shortest_from]. cbv zeta. rewrite rt_tn_up, rt_td_up.
  set (p := n - k). set (tn := x * rt_up 10 p). set (td := den * rt_up 10 (- p)).
  destruct (Z.eqb_spec (tn mod td) 0) as [Hr|Hr]; [discriminate|].
  destruct (in_interval incl lo hi den (tn / td) p) eqn:Dok; destruct (in_interval incl lo hi den (tn / td + 1) p) eqn:Uok; cbn [andb]; try discriminate.
  destruct (Z.eq_dec n 17) as [E17|N17].
  - exfalso. subst n. pose proof (rt_sf_last k incl x lo hi den Hden Hx Hge Hw) as L. cbv zeta in L.
    fold p in L. fold tn in L. fold td in L. destruct (L Hr) as [L1|L1]; congruence.
  - apply IH; lia.
Qed.

Definition rt_k0 (s : Z) : Z := ((54 + s) * 30103) / 100000.

(* 2^a * 2^s as a fraction in lowest terms *)
Lemma rt_pow2_shift a s k : 0 <= a -> ge_pow10 (2 ^ a * rt_P2 s) (rt_N2 s) k = ge_pow10 (rt_P2 (a + s)) (rt_N2 (a + s)) k.
Proof.
  intros Ha. rewrite !rt_ge_pow10_up. unfold Z.leb.
  rewrite (rt_compare_cross _ _ (rt_N2 (a + s) * rt_up 10 k) (rt_P2 (a + s) * rt_up 10 (- k)) (rt_N2 (a + s)) (rt_N2 s)); [reflexivity|apply rt_N2_pos..|ring|].
  pose proof (rt_up_add 2 a s) as E. rewrite (rt_up_nonneg 2 a), (rt_up_nonpos 2 (- a)) in E by lia. unfold rt_P2, rt_N2.
  replace (2 ^ a * rt_up 2 s * rt_up 10 (- k) * rt_up 2 (- (a + s))) with (rt_up 10 (- k) * (2 ^ a * rt_up 2 s * rt_up 2 (- (a + s)))) by ring.
  rewrite E. ring.
Qed.

(* 10^k < 2^n and 2^n < 10^k for exponents of either sign *)
Lemma rt_pow2_ge n k : (0 <= n -> 0 <= k -> 196 * k < 59 * n) -> (n < 0 -> 93 * k < 28 * n) ->
  ge_pow10 (rt_P2 n) (rt_N2 n) k = true.
Proof.
  intros Hp Hm. unfold ge_pow10, rt_P2, rt_N2, pow10. rewrite <- (proj1 (rt_up_if 2 n)), <- (proj2 (rt_up_if 2 n)).
  destruct (Z.leb_spec 0 n) as [Hn|Hn]; destruct (Z.leb_spec 0 k) as [Hk|Hk]; apply Z.leb_le.
  - rewrite Z.mul_1_l. apply Z.lt_le_incl, pow10_lt_pow2; lia.
  - assert (0 < 2 ^ n * 10 ^ (- k)) by (apply Z.mul_pos_pos; apply Z.pow_pos_nonneg; lia). lia.
  - lia.
  - rewrite Z.mul_1_l. apply Z.lt_le_incl, pow2_lt_pow10; lia.
Qed.

Lemma rt_pow2_lt n k : (0 <= n -> 28 * n < 93 * k) -> (n < 0 -> k < 0 -> 59 * n < 196 * k) ->
  ge_pow10 (rt_P2 n) (rt_N2 n) k = false.
Proof.
  intros Hp Hm. unfold ge_pow10, rt_P2, rt_N2, pow10. rewrite <- (proj1 (rt_up_if 2 n)), <- (proj2 (rt_up_if 2 n)).
  destruct (Z.leb_spec 0 n) as [Hn|Hn]; destruct (Z.leb_spec 0 k) as [Hk|Hk]; apply Z.leb_gt.
  - rewrite Z.mul_1_l. apply pow2_lt_pow10; lia.
  - lia.
  - assert (1 < 2 ^ (- n)) by (apply Z.pow_gt_1; lia). assert (0 < 10 ^ k) by (apply Z.pow_pos_nonneg; lia). nia.
  - rewrite Z.mul_1_l. apply pow10_lt_pow2; lia.
Qed.

(* for the least and the largest 4M of a binade: 10^(k0-2) <= 2^54 2^s  and  2^55 2^s < 10^(k0+2),
   because k0 is within 1 of (54+s) * 0.30103 and |54+s| * (0.30103 - log10 2) stays far below 1 *)
Lemma rt_k0_bounds s : -1060 <= s < 910 ->
  ge_pow10 (2 ^ 54 * rt_P2 s) (rt_N2 s) (rt_k0 s - 2) = true /\ ge_pow10 (2 ^ 55 * rt_P2 s) (rt_N2 s) (rt_k0 s + 2) = false.
Proof.
  intros Hs. unfold rt_k0. rewrite !rt_pow2_shift by lia.
  pose proof (Z.mul_div_le ((54 + s) * 30103) 100000 ltac:(lia)) as L.
  pose proof (Z.mul_succ_div_gt ((54 + s) * 30103) 100000 ltac:(lia)) as U.
  set (k0 := (54 + s) * 30103 / 100000) in *.
  split; [apply rt_pow2_ge|apply rt_pow2_lt]; lia.
Qed.

Lemma rt_ge_pow10_mono num num' den k : num <= num' -> ge_pow10 num den k = true -> ge_pow10 num' den k = true.
Proof.
  intros Hn. rewrite !rt_ge_pow10_up, !Z.leb_le. pose proof (rt_up_pos 10 (- k) ltac:(lia)).
  assert (num * rt_up 10 (- k) <= num' * rt_up 10 (- k)) by (apply Z.mul_le_mono_nonneg_r; lia). lia.
Qed.

(* g holds two below the estimate and fails two above it: one of the four candidates is where it changes *)
Lemma rt_find_exponent (g : Z -> bool) k0 : g (k0 - 2) = true -> g (k0 + 2) = false ->
  exists k, find (fun k => g (k - 1) && negb (g k)) [k0 - 1; k0; k0 + 1; k0 + 2] = Some k /\ g (k - 1) = true.
Proof.
  intros G1 G2. cbn [find].
  replace (k0 - 1 - 1) with (k0 - 2) by ring. replace (k0 + 1 - 1) with k0 by ring. replace (k0 + 2 - 1) with (k0 + 1) by ring.
  rewrite G1, G2. cbn [andb negb].
  destruct (g (k0 - 1)) eqn:A1; cbn [negb andb].
  2:{ exists (k0 - 1). replace (k0 - 1 - 1) with (k0 - 2) by ring. auto. }
  destruct (g k0) eqn:A2; cbn [negb andb]; [|exists k0; auto].
  destruct (g (k0 + 1)) eqn:A3; cbn [negb andb].
  - exists (k0 + 2). replace (k0 + 2 - 1) with (k0 + 1) by ring. auto.
  - exists (k0 + 1). replace (k0 + 1 - 1) with k0 by ring. auto.
Qed.

Lemma rt_dec_exponent_total X s :
  2 ^ 54 <= X < 2 ^ 55 -> -1060 <= s < 910 ->
  exists k, dec_exponent (X * rt_P2 s) (rt_N2 s) = Some k /\ ge_pow10 (X * rt_P2 s) (rt_N2 s) (k - 1) = true.
Proof.
  intros HX Hs. pose proof (rt_P2_pos s) as Hsc. pose proof (rt_N2_pos s) as Hdn.
  assert (LX : Z.log2 X = 54) by (apply Z.log2_unique; [lia|exact HX]).
  assert (Ediff : Z.log2 (X * rt_P2 s) - Z.log2 (rt_N2 s) = 54 + s).
  { unfold rt_P2, rt_N2, rt_up. rewrite Z.log2_mul_pow2, Z.log2_pow2, LX by lia. lia. }
  destruct (rt_k0_bounds s Hs) as [C1 C2].
  unfold dec_exponent. cbv zeta. rewrite Ediff. fold (rt_k0 s). apply rt_find_exponent.
  - apply (rt_ge_pow10_mono (2 ^ 54 * rt_P2 s)); [|exact C1]. apply Z.mul_le_mono_nonneg_r; lia.
  - destruct (ge_pow10 (X * rt_P2 s) (rt_N2 s) (rt_k0 s + 2)) eqn:G; [|reflexivity].
    rewrite (rt_ge_pow10_mono (X * rt_P2 s) (2 ^ 55 * rt_P2 s)) in C2; [discriminate C2| |exact G].
    apply Z.mul_le_mono_nonneg_r; lia.
Qed.

Theorem rt_shortest_decimal_total (q : positive) (e : Z) :
  podd q -> Zpos q < two53 -> -1000 < e < 900 -> shortest_decimal (Zpos q) e <> None.
Proof.
  intros Hodd Hq53 He. unfold shortest_decimal. cbv zeta.
  set (shift := 53 - (Z.log2 (Zpos q) + 1)).
  set (s := e - shift - 2).
  set (X := 4 * Zpos q * 2 ^ shift).
  set (LO := if Zpos q =? 1 then X - 1 else X - 2).
  rewrite (proj1 (rt_up_if 2 s)), (proj2 (rt_up_if 2 s)). fold (rt_P2 s) (rt_N2 s).
  pose proof (rt_shift_range q e Hq53) as Hs. fold shift in Hs.
  pose proof (rt_M_range q e Hq53) as HM. fold shift in HM.
  assert (HX : X = 4 * (Zpos q * 2 ^ shift)) by (unfold X; ring).
  assert (HXr : 2 ^ 54 <= X < 2 ^ 55) by (rewrite HX; change (2 ^ 54) with (4 * 2 ^ 52); change (2 ^ 55) with (4 * 2 ^ 53); lia).
  destruct (rt_dec_exponent_total X s HXr ltac:(unfold s; lia)) as (k & Ek & Gk). rewrite Ek.
  pose proof (rt_P2_pos s) as Hsc. pose proof (rt_N2_pos s) as Hdn.
  assert (HLO : 0 < LO /\ LO < X) by (unfold LO; destruct (Zpos q =? 1); lia).
  assert (Hx : LO * rt_P2 s < X * rt_P2 s < (X + 2) * rt_P2 s) by (split; apply Z.mul_lt_mono_pos_r; lia).
  assert (Hw : X * rt_P2 s < ((X + 2) * rt_P2 s - LO * rt_P2 s) * 10 ^ 16).
  { replace (((X + 2) * rt_P2 s - LO * rt_P2 s) * 10 ^ 16) with ((X + 2 - LO) * 10 ^ 16 * rt_P2 s) by ring.
    apply Z.mul_lt_mono_pos_r; [exact Hsc|].
    unfold LO. destruct (Z.eqb_spec (Zpos q) 1) as [E1|E1].
    - (* the lowest mantissa: X = 2^54, width 3 *)
      assert (Esh : shift = 52) by (unfold shift; rewrite E1; reflexivity).
      assert (EX : X = 2 ^ 54) by (rewrite HX, E1, Esh; reflexivity). rewrite EX. vm_compute. reflexivity.
    - replace (X + 2 - (X - 2)) with 4 by lia. assert (2 ^ 55 < 4 * 10 ^ 16) by (vm_compute; reflexivity). lia. }
  pose proof (rt_sf_total k (1 <=? shift) _ _ _ _ Hdn Hx Gk Hw 17%nat 1 ltac:(lia) ltac:(lia)) as T.
  destruct (shortest_from 17 1 k (1 <=? shift) (X * rt_P2 s) (LO * rt_P2 s) ((X + 2) * rt_P2 s) (rt_N2 s)) as [[c p]|]; [|congruence].
  destruct (strip10 20 c p). discriminate.
Qed.
