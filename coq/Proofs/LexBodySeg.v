(* C15, scanner half for bodies with tags: lexText on a stretch of text in which the Spec finds no comment,
   followed by a tag or by the end of the input. *)
From Soy Require Import Model.Bytes Model.Utf8 Model.Outcome Model.Token Generated.Tables Model.Lexer Spec.Text Spec.TextBody Spec.TextMix
  Proofs.Utf8Proofs Proofs.RawTextProofs Proofs.LexerPrim Proofs.LexerStates Proofs.LexTokens Proofs.LexBodyText.
From Coq Require Import ZifyBool Lia.
Open Scope Z_scope.

(* ---------- Spec side: a text that is one piece ---------- *)
Lemma pieces_nonempty : forall T m pw cur l, pieces m pw cur T = Some l -> l <> [].
Proof.
  induction T as [|c r IH]; intros m pw cur l Hp.
  - destruct m; cbn [pieces] in Hp; try discriminate; injection Hp as <-; discriminate.
  - assert (Hcons : forall m' l', cons_opt (rev cur) (pieces m' false [] r) = Some l' -> l' <> []).
    { intros m' l' H. destruct (cons_opt_inv _ _ _ H) as (r0 & _ & ->). discriminate. }
    destruct m; cbn [pieces] in Hp.
    + destruct (c =? 47)%N; [|eapply IH; exact Hp].
      destruct r as [|d r2]; [eapply IH; exact Hp|].
      destruct (d =? 42)%N.
      * destruct r2 as [|e r3]; [discriminate|].
        destruct ((e =? 42)%N && negb (match r3 with f :: _ => (f =? 47)%N | [] => false end)); [discriminate|].
        eapply Hcons; exact Hp.
      * destruct ((d =? 47)%N && pw); [eapply Hcons; exact Hp|eapply IH; exact Hp].
    + eapply IH; exact Hp.
    + eapply IH; exact Hp.
    + destruct (line_break c); eapply IH; exact Hp.
    + destruct (c =? 42)%N; [eapply IH; exact Hp|]. destruct ((c =? 47)%N && star); eapply IH; exact Hp.
Qed.

(* one piece: the Spec found no comment, the piece is the whole text *)
Lemma one_piece : forall T pw cur x, pieces MText pw cur T = Some [x] -> x = rev cur ++ T /\ line_open MText pw T = false.
Proof.
  induction T as [|c T IH]; intros pw cur x Hp.
  { injection Hp as <-. rewrite app_nil_r. auto. }
  assert (Hgo : forall pw', pieces MText pw' (c :: cur) T = Some [x] -> x = rev cur ++ c :: T /\ line_open MText pw' T = false).
  { intros pw' H. destruct (IH _ _ _ H) as [-> Ho]. cbn [rev]. rewrite <- app_assoc. auto. }
  destruct (N.eqb_spec c 47) as [->|Hc].
  2:{ apply N.eqb_neq in Hc. cbn [pieces line_open] in *. rewrite Hc in *. exact (Hgo _ Hp). }
  destruct T as [|d T2]; [exact (Hgo false Hp)|]. rewrite pieces_slash in Hp. rewrite open_slash.
  assert (Hno : forall m, cons_opt (rev cur) (pieces m false [] T2) <> Some [x]).
  { intros m H. destruct (cons_opt_inv _ _ _ H) as (r0 & Hr & E). injection E as _ <-. exact (pieces_nonempty _ _ _ _ _ Hr eq_refl). }
  destruct (d =? 42)%N.
  { exfalso. destruct T2 as [|e r3]; [discriminate|]. destruct (_ && _) in Hp; [discriminate|exact (Hno _ Hp)]. }
  destruct ((d =? 47)%N && pw); [destruct (Hno _ Hp)|exact (Hgo _ Hp)].
Qed.

Section Seg.
Variable inp : bstr.
Notation ilen := (Z.of_nat (length inp)).
Notation span := (span inp).

(* what follows a stretch of text: the end of the input, or a tag *)
Definition tag_or_end (tl : bstr) : Prop := tl = [] \/ exists tl', tl = 123%N :: tl'.

Lemma rest_src_tag r : tag_or_end (rest_src r).
Proof. destruct r as [|[[n o] T] r']; [left; reflexivity|right; eexists; reflexivity]. Qed.

(* lexText over a stretch that is one piece, up to the tag or the end of the input *)
Lemma text_plain_run : forall n T, (length T <= n)%nat -> forall w l r0 fuel x tl,
  span l w (T ++ tl) -> (length (T ++ tl) < fuel)%nat -> plain T -> tag_or_end tl ->
  (r0 = 0 -> w = []) -> (r0 <> 0 -> exists w' b, w = w' ++ [b] /\ (gen_isSpaceEOL r0 = true -> ws b = true)) ->
  pieces MText (pwof r0 l) (rev w) T = Some [x] ->
  exists st' l', lex_text_loop inp ilen 0 fuel r0 l = Ok (st', l') /\ x = w ++ T /\ plain_result inp l x tl st' l'.
Proof.
  intros _ T _ w l r0 fuel x tl Hs Hf Hpl Htl Hr0 Hr1 Hpc. destruct (one_piece _ _ _ _ Hpc) as [Hx Hlo].
  rewrite rev_involutive in Hx. rewrite app_length in Hf.
  destruct (text_loop_tl inp tl Htl fuel T w l r0 [x] Hs Hf Hpl (conj Hr0 Hr1) (conj Hpc (fun _ => Hlo)))
    as (st' & l' & Hrun & (x0 & rest & Hp & Hres)).
  injection Hp as <- <-. exists st', l'. split; [exact Hrun|]. split; [exact Hx|].
  destruct Hres as [(_ & H)|(txt & x' & s2 & op & m & _ & _ & _ & _ & _ & _ & (Hpn & _))]; [exact H|].
  destruct (pieces_nonempty _ _ _ _ _ Hpn eq_refl).
Qed.

End Seg.
