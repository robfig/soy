(* C01, text level of the syntax half: the string the printer model writes for the tree of a Spec expression,
   put through the scanner model and the parser model, gives that tree back up to node positions; the tree
   of a Spec expression has all positions 0, so erasing the positions of the parser's result gives it exactly.
   Composed with the evaluation half (eval_impl_spec, on to_node G e). *)
From Coq Require Import Lia ZifyBool.
From Soy Require Import Model.Bytes Model.Num Model.Values Model.Outcome Model.Ast Model.AstPrint Model.Interp
  Model.Token Model.NumLit Model.Quote Model.ExprParser Model.Parser Model.Lexer Model.ExprTrans Spec.Expr Spec.ExprSyntax Generated.Tables
  Proofs.EvalProofs Proofs.EvalMainProofs Proofs.ExprParserRules Proofs.ExprParserProofs Proofs.EvalSyntaxProofs
  Proofs.LexPrintMain Proofs.LexParseText Proofs.InterpGuard Proofs.InterpPos.
Open Scope N_scope.

(* the tree of a Spec expression carries no positions *)
Theorem strip_to_node G e : strip_pos (to_node G e) = to_node G e.
Proof.
  induction e using expr_nested_ind with (Q := fun a => strip_pos (acc_node G a) = acc_node G a);
    cbn [to_node acc_node strip_pos]; try reflexivity; try (f_equal; assumption);
    try (f_equal; apply map_map_Forall; assumption).
  f_equal. apply map_map_Forall. eapply Forall_impl; [|eassumption]. intros kv IH. cbn [fst snd]. f_equal. exact IH.
Qed.

(* SetNodeGlobals does not look at positions *)
Lemma set_globals_strip G : forall n, strip_pos (set_globals G n) = set_globals G (strip_pos n).
Proof.
  induction n as [n IH] using size_induction.
  destruct n; try reflexivity; cbn [set_globals strip_pos].
  - f_equal. rewrite !map_map. apply map_ext_in. intros c Hc. apply IH. cbn [size]. pose proof (size_in_list c args Hc). lia.
  - f_equal. rewrite !map_map. apply map_ext_in. intros c Hc. apply IH. cbn [size]. pose proof (size_in_list c items Hc). lia.
  - f_equal. rewrite !map_map. apply map_ext_in. intros kv Hkv. cbn [fst snd]. f_equal. apply IH.
    cbn [size]. pose proof (list_sum_In (fun kv => size (snd kv)) kv _ Hkv). lia.
  - f_equal. rewrite !map_map. apply map_ext_in. intros c Hc. apply IH. cbn [size]. pose proof (size_in_list c access Hc). lia.
  - f_equal. apply IH. cbn [size]. lia.
  - f_equal. apply IH. cbn [size]. lia.
  - f_equal. apply IH. cbn [size]. lia.
  - f_equal; apply IH; cbn [size]; lia.
  - f_equal; apply IH; cbn [size]; lia.
Qed.

(* string -> items (scanner model) -> tree (parser model) -> compiled tree -> value.
   [txt] is what ast/node.go's String() writes for the expression (minimal parentheses); the scanner is the
   model of lexExpr with the unicode tables of the toolchain; the parser runs under parse.Expr's own budget. *)
Theorem text_string_to_value G ij cf e txt fuel st :
  syntax_ok e -> lex_ok (to_node [] e) -> print_node (to_node [] e) = Some txt ->
  ExprTrans.wf_expr G e = true -> c_ij cf = ij -> (height e <= fuel)%nat ->
  (exists e' st', parse_expr_string is_letter_tbl is_digit_tbl txt = Ok (POk e' st') /\ strip_pos e' = to_node [] e /\
                  strip_pos (set_globals G e') = to_node G e) /\
  (forall v n', eval_spec G (flatten (ctx st)) ij e (next_id st) = Ok (v, n') ->
     exists st2, walk cf fuel (set_globals G (to_node [] e)) st = (Ok v, st2) /\ frame_eq st st2 /\ next_id st2 = n') /\
  (forall m, eval_spec G (flatten (ctx st)) ij e (next_id st) = Err m ->
     exists msg st2, walk cf fuel (set_globals G (to_node [] e)) st = (Err msg, st2) /\ frame_eq st st2).
Proof.
  intros Hok Hlo Hp Hwf Hij Hh. split.
  - destruct (text_roundtrip_tbl (to_node [] e) txt (src_wf e Hok) Hlo Hp) as (e' & st' & Hr & He).
    assert (He' : strip_pos e' = to_node [] e) by (rewrite He; apply strip_to_node).
    exists e', st'. split; [exact Hr|]. split; [exact He'|].
    rewrite set_globals_strip, He'. apply set_globals_to_node.
  - rewrite (set_globals_to_node G e).
    exact (eval_impl_spec G ij cf fuel e st Hij Hwf Hh).
Qed.

(* the tree of a Spec expression consists of expression nodes only *)
Lemma forallb_map_Forall {A B} (f : B -> bool) (g : A -> B) l : Forall (fun x => f (g x) = true) l -> forallb f (map g l) = true.
Proof. induction 1 as [|x r Hx _ IH]; [reflexivity|]. cbn [map forallb]. rewrite Hx. exact IH. Qed.

Theorem expr_tree_to_node G e : expr_tree (to_node G e) = true.
Proof.
  unfold expr_tree.
  induction e using expr_nested_ind with (Q := fun a => deep is_expr (acc_node G a) = true);
    cbn [to_node acc_node deep is_expr andb]; try reflexivity; try assumption;
    try (apply forallb_map_Forall; assumption); rewrite IHe1, IHe2, ?IHe3; reflexivity.
Qed.

(* string -> items -> the parser's OWN tree (positions and all) -> SetNodeGlobals -> the walker: the Spec's value.
   The walker half of text_string_to_value, transported along walk_strip (Proofs/InterpPos.v): expression nodes use
   their position for s.node only. *)
Theorem text_string_to_value_full G ij cf e txt fuel st :
  syntax_ok e -> lex_ok (to_node [] e) -> print_node (to_node [] e) = Some txt ->
  ExprTrans.wf_expr G e = true -> c_ij cf = ij -> (height e <= fuel)%nat ->
  exists e' st', parse_expr_string is_letter_tbl is_digit_tbl txt = Ok (POk e' st') /\ strip_pos e' = to_node [] e /\
    (forall v n', eval_spec G (flatten (ctx st)) ij e (next_id st) = Ok (v, n') ->
       exists st2, walk cf fuel (set_globals G e') st = (Ok v, st2) /\ frame_eq st st2 /\ next_id st2 = n') /\
    (forall m, eval_spec G (flatten (ctx st)) ij e (next_id st) = Err m ->
       exists msg st2, walk cf fuel (set_globals G e') st = (Err msg, st2) /\ frame_eq st st2).
Proof.
  intros Hok Hlo Hp Hwf Hij Hh.
  destruct (text_string_to_value G ij cf e txt fuel st Hok Hlo Hp Hwf Hij Hh) as ((e' & st' & Hr & He1 & He2) & Hv & Hm).
  exists e', st'. split; [exact Hr|]. split; [exact He1|].
  assert (Hx : expr_tree (set_globals G e') = true).
  { rewrite <- expr_tree_strip, He2. apply expr_tree_to_node. }
  destruct (walk_strip_run cf fuel (set_globals G e') st Hx) as [Ef Ec]. rewrite He2 in Ef, Ec.
  rewrite (set_globals_to_node G e) in Hv, Hm.
  assert (Hfr : forall s2, eqc (snd (walk cf fuel (set_globals G e') st)) s2 -> frame_eq st s2 ->
                frame_eq st (snd (walk cf fuel (set_globals G e') st)) /\ next_id (snd (walk cf fuel (set_globals G e') st)) = next_id s2).
  { intros s2 (A1 & A2 & A3 & A4 & A5 & A6 & A7 & A8 & A9 & A10 & A11) (B1 & B2 & B3 & B4 & B5 & B6 & B7 & B8 & B9).
    split; [|exact A9]. unfold frame_eq. repeat split; congruence. }
  split.
  - intros v n' E. destruct (Hv v n' E) as (s2 & Hw & Hf & Hn). rewrite Hw in Ef, Ec. cbn [fst snd] in Ef, Ec.
    destruct (Hfr s2 Ec Hf) as [F1 F2].
    exists (snd (walk cf fuel (set_globals G e') st)). split; [|split; [exact F1|congruence]].
    destruct (walk cf fuel (set_globals G e') st) as [r s]. cbn [fst snd] in *. rewrite Ef. reflexivity.
  - intros m E. destruct (Hm m E) as (msg & s2 & Hw & Hf). rewrite Hw in Ef, Ec. cbn [fst snd] in Ef, Ec.
    destruct (Hfr s2 Ec Hf) as [F1 _].
    exists msg, (snd (walk cf fuel (set_globals G e') st)). split; [|exact F1].
    destruct (walk cf fuel (set_globals G e') st) as [r s]. cbn [fst snd] in *. rewrite Ef. reflexivity.
Qed.
