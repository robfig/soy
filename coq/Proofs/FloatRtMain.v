(* Float round trip, part 5: Num.fl_to_string (strconv 'g' -1) read by NumLit.parse_float_round
   (strconv.ParseFloat on the scanner's float syntax) is the float that was printed -- for every finite
   float of the model in normal form (odd mantissa below 2^53, exponent inside Num.mk_fl's window, or a
   signed zero), with no hypothesis on the number of digits or the size of the exponent. *)
From Soy Require Import Model.Bytes Model.Num Model.Utf8 Model.NumLit Proofs.NumLitProofs Proofs.MsgIdProofs
  Proofs.FloatRtRound Proofs.FloatRtDigits Proofs.FloatRtText Proofs.FloatRtTotal.
From Coq Require Import ZifyBool Lia.
Open Scope Z_scope.

Lemma rt_strip2_odd q e : podd q -> strip2 q e = (q, e).
Proof. destruct q; cbn [strip2 podd]; [reflexivity|contradiction|reflexivity]. Qed.

Lemma rt_dec_of_Z_pos c : 0 < c ->
  rt_digs (dec_of_Z c) /\ dec_of_Z c <> [] /\ Z.of_N (dec_val (dec_of_Z c) 0) = c.
Proof.
  intros Hc. assert (E : dec_of_Z c = dec_of_N (Z.to_N c)) by (destruct c; [lia|reflexivity|lia]).
  rewrite E. split; [apply dec_of_N_digits|]. split; [apply dec_of_N_nonempty|]. rewrite rt_dec_val_dec. lia.
Qed.

Theorem rt_fin_roundtrip (q : positive) (e : Z) (neg : bool) s :
  podd q -> fl_to_string (FFin (if neg then Zneg q else Zpos q) e) = Some s ->
  parse_float_round s = FRVal (FFin (if neg then Zneg q else Zpos q) e) /\
  (((mem 46 s || mem 101 s)%bool = true /\ rt_shape s) \/
   ((mem 46 s || mem 101 s)%bool = false /\
    parse_float_round (s ++ [46; 48]%N) = FRVal (FFin (if neg then Zneg q else Zpos q) e) /\ rt_shape (s ++ [46; 48]%N))).
Proof.
  intros Hodd Hs. unfold fl_to_string in Hs.
  assert (Ea : Z.abs (if neg then Zneg q else Zpos q) = Zpos q) by (destruct neg; reflexivity).
  assert (Es : ((if neg then Zneg q else Zpos q) <? 0) = neg) by (destruct neg; reflexivity).
  rewrite Ea, Es, (rt_strip2_odd q e Hodd) in Hs.
  destruct ((Zpos q <? two53) && (-1000 <? e) && (e <? 900))%bool eqn:W; [|discriminate].
  destruct (shortest_decimal (Zpos q) e) as [[ds dp]|] eqn:SD; [|discriminate]. injection Hs as <-.
  destruct (rt_shortest_decimal_sound q e ds dp Hodd ltac:(lia) ltac:(lia) SD) as (c & p & Hc & -> & -> & Hp & Hr).
  destruct (rt_dec_of_Z_pos c Hc) as (D1 & D2 & D3).
  exact (rt_fmt_g_parse neg c p _ (dec_of_Z c) Hc Hp (Hr neg) D1 D2 D3).
Qed.

Theorem fl_to_string_parse (x : fl) (s : bstr) :
  fl_finite_norm x -> fl_to_string x = Some s ->
  parse_float_round s = FRVal x /\
  (((mem 46 s || mem 101 s)%bool = true /\ rt_shape s) \/
   ((mem 46 s || mem 101 s)%bool = false /\ parse_float_round (s ++ [46; 48]%N) = FRVal x /\ rt_shape (s ++ [46; 48]%N))).
Proof.
  destruct x as [| |n|m e]; cbn [fl_finite_norm]; try contradiction.
  - intros _ Hs.
    assert (H48 : rt_digs [48%N]) by (constructor; [unfold is_digit_byte; lia|constructor]).
    assert (Es : s = (if n then [45%N] else []) ++ [48%N]) by (destruct n; injection Hs as <-; reflexivity). subst s.
    split; [destruct n; reflexivity|]. right. split; [destruct n; reflexivity|]. split; [destruct n; reflexivity|].
    exists n, [48%N], [48%N], false, false, []. split; [destruct n; reflexivity|]. split; [exact H48|]. split; [discriminate|].
    split; [exact H48|]. split; [constructor|]. split; [exact Logic.I|]. left. discriminate.
  - intros Hm Hs. destruct m as [|q|q]; [discriminate| |].
    + apply (rt_fin_roundtrip q e false s); [destruct q; try discriminate; exact Logic.I|exact Hs].
    + apply (rt_fin_roundtrip q e true s); [destruct q; try discriminate; exact Logic.I|exact Hs].
Qed.

(* printing then parsing is the identity *)
Corollary fl_to_string_roundtrip (x : fl) (s : bstr) :
  fl_finite_norm x -> fl_to_string x = Some s -> parse_float_round s = FRVal x.
Proof. intros Hn Hs. exact (proj1 (fl_to_string_parse x s Hn Hs)). Qed.

(* the floats of the model: a signed zero, or an odd mantissa below 2^53 with an exponent of mk_fl's window *)
Definition fl_in_window (x : fl) : Prop :=
  match x with
  | FZero _ => True
  | FFin m e => Z.odd m = true /\ Z.abs m < two53 /\ -1000 < e < 900
  | _ => False
  end.

Lemma rt_window_norm x : fl_in_window x -> fl_finite_norm x.
Proof. destruct x; cbn; tauto. Qed.

Lemma rt_window_neg x : fl_in_window x -> fl_in_window (fl_neg x).
Proof. destruct x as [| |n|m e]; cbn; [trivial..|]. rewrite Z.odd_opp, Z.abs_opp. trivial. Qed.

Lemma rt_abs_odd m : Z.odd m = true -> exists q, Z.abs m = Zpos q /\ podd q.
Proof. destruct m as [|q|q]; [discriminate| |]; exists q; (split; [reflexivity|]); destruct q; try discriminate; exact Logic.I. Qed.

Theorem fl_to_string_total (x : fl) : fl_in_window x -> exists s, fl_to_string x = Some s.
Proof.
  destruct x as [| |n|m e]; cbn [fl_in_window]; try contradiction.
  - intros _. destruct n; eexists; reflexivity.
  - intros (Hodd & Hm & He).
    destruct (rt_abs_odd m Hodd) as (q & Ea & Hq). unfold fl_to_string. rewrite Ea, (rt_strip2_odd q e Hq).
    replace ((Zpos q <? two53) && (-1000 <? e) && (e <? 900))%bool with true by lia.
    pose proof (rt_shortest_decimal_total q e Hq ltac:(lia) He) as T.
    destruct (shortest_decimal (Zpos q) e) as [[ds dp]|]; [|congruence]. eexists. reflexivity.
Qed.

(* and only on those (among the finite floats in normal form) *)
Lemma fl_to_string_window (x : fl) s : fl_finite_norm x -> fl_to_string x = Some s -> fl_in_window x.
Proof.
  destruct x as [| |n|m e]; cbn [fl_finite_norm fl_in_window]; try contradiction; [trivial|].
  intros Hodd Hs. destruct (rt_abs_odd m Hodd) as (q & Ea & Hq). unfold fl_to_string in Hs. rewrite Ea, (rt_strip2_odd q e Hq) in Hs.
  destruct ((Zpos q <? two53) && (-1000 <? e) && (e <? 900))%bool eqn:W; [|discriminate]. lia.
Qed.

Lemma rt_mk_fl_window m e x : mk_fl m e = Some x -> fl_in_window x.
Proof.
  unfold mk_fl. destruct m as [|q|q]; [intros H; injection H as <-; exact Logic.I| |];
    (destruct (strip2_spec q e) as (q' & t & E & Hq & _); rewrite E;
     destruct ((Zpos q' <? two53) && (-1000 <? e + Z.of_nat t) && (e + Z.of_nat t <? 900))%bool eqn:W; [|discriminate];
     intros H; injection H as <-; cbn; split; [destruct q'; try contradiction; reflexivity|lia]).
Qed.

(* every float an operation of the model returns is in normal form *)
Lemma rt_mk_fl_norm m e x : mk_fl m e = Some x -> fl_finite_norm x.
Proof. intros H. exact (rt_window_norm x (rt_mk_fl_window m e x H)). Qed.
