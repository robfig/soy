(* C06: [node_all] and [tree_height] (Spec/Safety.v) along [subnodes] (Proofs/InterpSub.v):
   a predicate that holds of every node of a tree holds of every node the walker
   passes on, and those nodes are strictly lower. *)
From Coq Require Import Lia ZifyBool.
From Soy Require Import Model.Bytes Model.Num Model.Values Model.Outcome Model.Ast
  Model.Interp Spec.Safety Proofs.ValueProofs Proofs.InterpLogic Proofs.InterpSub.
Open Scope N_scope.

Ltac split_andb :=
  repeat match goal with
         | H : _ && _ = true |- _ => apply andb_prop in H; destruct H
         end.

Lemma node_all_head P n : node_all P n = true -> P n = true.
Proof. destruct n; cbn [node_all]; intros H; apply andb_prop in H; tauto. Qed.

Lemma forallb_In {A} (f : A -> bool) l x : forallb f l = true -> In x l -> f x = true.
Proof. intros H Hin. rewrite forallb_forall in H. apply H. exact Hin. Qed.

Section All.
Variable P : node -> bool.
(* the message node the plural walker rebuilds at the message's own position *)
Hypothesis Psyn : forall p i m d b b', P (NMsg p i m d b) = true -> P (NMsg p 0 [] [] b') = true.

Lemma node_all_opt o x : match o with Some y => node_all P y | None => true end = true ->
  In x (opt_list o) -> node_all P x = true.
Proof. destruct o; cbn; [intros H [<-|[]]; exact H | intros _ []]. Qed.

Theorem node_all_sub n n' : node_all P n = true -> In n' (subnodes n) -> node_all P n' = true.
Proof.
  intros H Hin.
  destruct n; cbn [subnodes] in Hin; try contradiction; pose proof (node_all_head _ _ H) as HP;
    cbn [node_all] in H; apply andb_prop in H as [_ H]; split_andb.
  - (* NFunc *) eapply forallb_In; eauto.
  - (* NListLit *) eapply forallb_In; eauto.
  - (* NMapLit *) apply in_map_iff in Hin as ([k e] & <- & Hin). apply (forallb_In _ _ _ H Hin).
  - (* NDataRef *)
    apply in_flat_map in Hin as (a & Ha & Hin). pose proof (forallb_In _ _ _ H Ha) as Hn.
    destruct a; cbn [acc_subs] in Hin; try contradiction. destruct Hin as [<-|[]].
    cbn [node_all] in Hn. split_andb. assumption.
  - (* NNot *) destruct Hin as [<-|[]]. assumption.
  - (* NNeg *) destruct Hin as [<-|[]]. assumption.
  - (* NBin *) destruct Hin as [<-|[<-|[]]]; assumption.
  - (* NTern *) destruct Hin as [<-|[<-|[<-|[]]]]; assumption.
  - (* NList *) eapply forallb_In; eauto.
  - (* NPrint *)
    destruct Hin as [<-|Hin]; [assumption|].
    apply in_flat_map in Hin as (d & Hd & Hin).
    match goal with Hf : forallb _ dirs = true |- _ => pose proof (forallb_In _ _ _ Hf Hd) as Hn end.
    destruct d; cbn [dir_subs] in Hin; try contradiction.
    cbn [node_all] in Hn. split_andb. eapply forallb_In; eauto.
  - (* NCss *) eapply node_all_opt; eauto.
  - (* NLog *) destruct Hin as [<-|[]]. assumption.
  - (* NIf *)
    apply in_flat_map in Hin as (c & Hc & Hin). pose proof (forallb_In _ _ _ H Hc) as Hn.
    destruct c; cbn [cond_subs] in Hin; try contradiction.
    cbn [node_all] in Hn. split_andb.
    apply in_app_or in Hin as [Hin|[<-|[]]]; [eapply node_all_opt; eauto | assumption].
  - (* NFor *)
    destruct Hin as [<-|[<-|Hin]]; try assumption. eapply node_all_opt; eauto.
  - (* NSwitch *)
    destruct Hin as [<-|Hin]; [assumption|].
    apply in_flat_map in Hin as (c & Hc & Hin).
    match goal with Hf : forallb _ cases = true |- _ => pose proof (forallb_In _ _ _ Hf Hc) as Hn end.
    destruct c; cbn [case_subs] in Hin; try contradiction.
    cbn [node_all] in Hn. split_andb.
    apply in_app_or in Hin as [Hin|[<-|[]]]; [eapply forallb_In; eauto | assumption].
  - (* NCall *)
    apply in_app_or in Hin as [Hin|Hin]; [eapply node_all_opt; eauto|].
    apply in_flat_map in Hin as (q & Hq & Hin).
    match goal with Hf : forallb _ params = true |- _ => pose proof (forallb_In _ _ _ Hf Hq) as Hn end.
    destruct q; cbn [param_subs] in Hin; try contradiction; destruct Hin as [<-|[]];
      cbn [node_all] in Hn; split_andb; assumption.
  - (* NLetValue *) destruct Hin as [<-|[]]. assumption.
  - (* NLetContent *) destruct Hin as [<-|[]]. assumption.
  - (* NMsg *)
    apply in_flat_map in Hin as (x & Hx & Hin). pose proof (forallb_In _ _ _ H Hx) as Hn.
    destruct x; cbn [msg_subs] in Hin; try contradiction.
    + (* raw text: walked as it is *) destruct Hin as [<-|[]]. exact Hn.
    + (* placeholder *) destruct Hin as [<-|[]]. cbn [node_all] in Hn. split_andb. assumption.
    + (* plural *)
      cbn [node_all] in Hn. split_andb.
      destruct Hin as [<-|[<-|Hin]]; [assumption | |].
      * cbn [node_all]. rewrite (Psyn _ _ _ _ _ _ HP). cbn [andb]. assumption.
      * apply in_flat_map in Hin as (c & Hc & Hin).
        match goal with Hf : forallb _ cases = true |- _ => pose proof (forallb_In _ _ _ Hf Hc) as Hcn end.
        destruct c; cbn [plural_case_subs] in Hin; try contradiction. destruct Hin as [<-|[]].
        cbn [node_all] in Hcn |- *. split_andb. rewrite (Psyn _ _ _ _ _ _ HP). cbn [andb]. assumption.
  - (* NTemplate *) destruct Hin as [<-|[]]. assumption.
Qed.
End All.

Lemma hmax_in x l : In x l -> (tree_height x <= hmax l)%nat.
Proof. apply (fold_max_le tree_height). Qed.

Lemma height_opt o x : In x (opt_list o) -> (tree_height x <= match o with Some y => tree_height y | None => 0 end)%nat.
Proof. destruct o; cbn; [intros [<-|[]]; lia | intros []]. Qed.

Lemma height_msg p i m d b : tree_height (NMsg p i m d b) = S (hmax b).
Proof. reflexivity. Qed.

Theorem height_sub n n' : In n' (subnodes n) -> (tree_height n' < tree_height n)%nat.
Proof.
  intros Hin.
  destruct n; cbn [subnodes] in Hin; try contradiction; cbn [tree_height]; fold (hmax).
  - (* NFunc *) pose proof (hmax_in _ _ Hin). unfold hmax in *. lia.
  - (* NListLit *) pose proof (hmax_in _ _ Hin). unfold hmax in *. lia.
  - (* NMapLit *)
    apply in_map_iff in Hin as ([k e] & <- & Hin).
    pose proof (fold_max_le (fun kv : bstr * node => tree_height (snd kv)) _ _ Hin). cbn [snd] in *. lia.
  - (* NDataRef *)
    apply in_flat_map in Hin as (a & Ha & Hin). pose proof (hmax_in _ _ Ha) as Hle.
    destruct a; cbn [acc_subs] in Hin; try contradiction. destruct Hin as [<-|[]].
    cbn [tree_height] in Hle. unfold hmax in *. lia.
  - destruct Hin as [<-|[]]. lia.
  - destruct Hin as [<-|[]]. lia.
  - destruct Hin as [<-|[<-|[]]]; lia.
  - destruct Hin as [<-|[<-|[<-|[]]]]; lia.
  - (* NList *) pose proof (hmax_in _ _ Hin). unfold hmax in *. lia.
  - (* NPrint *)
    destruct Hin as [<-|Hin]; [lia|].
    apply in_flat_map in Hin as (d & Hd & Hin). pose proof (hmax_in _ _ Hd) as Hle.
    destruct d; cbn [dir_subs] in Hin; try contradiction.
    pose proof (hmax_in _ _ Hin). cbn [tree_height] in Hle. unfold hmax in *. lia.
  - (* NCss *) pose proof (height_opt _ _ Hin). lia.
  - destruct Hin as [<-|[]]. lia.
  - (* NIf *)
    apply in_flat_map in Hin as (c & Hc & Hin). pose proof (hmax_in _ _ Hc) as Hle.
    destruct c; cbn [cond_subs] in Hin; try contradiction. cbn [tree_height] in Hle.
    apply in_app_or in Hin as [Hin|[<-|[]]]; [pose proof (height_opt _ _ Hin)|]; unfold hmax in *; lia.
  - (* NFor *)
    destruct Hin as [<-|[<-|Hin]]; try lia. pose proof (height_opt _ _ Hin). lia.
  - (* NSwitch *)
    destruct Hin as [<-|Hin]; [lia|].
    apply in_flat_map in Hin as (c & Hc & Hin). pose proof (hmax_in _ _ Hc) as Hle.
    destruct c; cbn [case_subs] in Hin; try contradiction. cbn [tree_height] in Hle.
    apply in_app_or in Hin as [Hin|[<-|[]]]; [pose proof (hmax_in _ _ Hin)|]; unfold hmax in *; lia.
  - (* NCall *)
    apply in_app_or in Hin as [Hin|Hin]; [pose proof (height_opt _ _ Hin); lia|].
    apply in_flat_map in Hin as (q & Hq & Hin). pose proof (hmax_in _ _ Hq) as Hle.
    destruct q; cbn [param_subs] in Hin; try contradiction; destruct Hin as [<-|[]];
      cbn [tree_height] in Hle; unfold hmax in *; lia.
  - destruct Hin as [<-|[]]. lia.
  - destruct Hin as [<-|[]]. lia.
  - (* NMsg *)
    apply in_flat_map in Hin as (x & Hx & Hin). pose proof (hmax_in _ _ Hx) as Hle.
    destruct x; cbn [msg_subs] in Hin; try contradiction.
    + destruct Hin as [<-|[]]. unfold hmax in *. lia.
    + destruct Hin as [<-|[]]. cbn [tree_height] in Hle. unfold hmax in *. lia.
    + cbn [tree_height] in Hle.
      destruct Hin as [<-|[<-|Hin]].
      * unfold hmax in *. lia.
      * rewrite height_msg. unfold hmax in *. lia.
      * apply in_flat_map in Hin as (c & Hc & Hin). pose proof (hmax_in _ _ Hc) as Hlc.
        destruct c; cbn [plural_case_subs] in Hin; try contradiction. destruct Hin as [<-|[]].
        rewrite height_msg. cbn [tree_height] in Hlc. unfold hmax in *. lia.
  - destruct Hin as [<-|[]]. lia.
Qed.
