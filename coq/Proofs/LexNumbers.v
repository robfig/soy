(* "Lexes exactly this token", number literals: the decimal integer and float texts that scanNumber
   accepts ( -? D+ ( . D+ )? ( e [+-]? D+ )? , an integer not starting with a superfluous 0), reached
   either from a digit or from a "-" in operand position (lexNegative sends both to lexNumber). *)
From Soy Require Import Model.Bytes Model.Utf8 Model.Outcome Model.Token Generated.Tables Model.Lexer
  Proofs.LexerPrim Proofs.LexerStates Proofs.LexTokens.
From Coq Require Import ZifyBool Lia.
Open Scope Z_scope.

Definition all_digits (ds : bstr) : Prop := Forall (fun c => digit_b c = true) ds.

Section Digits.
Variable inp : bstr.
Notation ilen := (Z.of_nat (length inp)).
Notation span := (span inp).

Lemma digit_lt c : digit_b c = true -> (c < 128)%N.
Proof. unfold digit_b. lia. Qed.

Lemma in_set_dec c : (c < 128)%N -> in_set dec_digits_set (Z.of_N c) = digit_b c.
Proof. intros Hc. unfold in_set, digit_b, dec_digits_set, mem. cbn [existsb]. lia. Qed.

(* nothing but the cursor moved *)
Definition same (l l1 : lx) : Prop :=
  l_out l1 = l_out l /\ l_last l1 = l_last l /\ l_dd l1 = l_dd l /\ l_start l1 = l_start l.
Lemma same_refl l : same l l. Proof. repeat split. Qed.
Lemma same_adv l : same l (adv l). Proof. repeat split. Qed.
Lemma same_trans l l1 l2 : same l l1 -> same l1 l2 -> same l l2.
Proof. unfold same. intros (A & B & C & D) (A' & B' & C' & D'). repeat split; congruence. Qed.

Lemma peek_same l w s : span l w s -> head_ascii s ->
  exists l1, peek inp ilen l = Ok (head_rune s, l1) /\ span l1 w s /\ same l l1.
Proof.
  intros Hs Ha. destruct (next_back inp l w s Hs Ha) as (l1 & Hn & Hs1 & Ho).
  exists (backup l1). unfold peek. rewrite Hn. split; [reflexivity|]. split; [exact Hs1|exact Ho].
Qed.

(* the loop of acceptRun(decDigits) over a run of digits *)
Lemma accept_run_loop_digits ds : forall l w s fuel, span l w (ds ++ s) -> all_digits ds -> head_ascii s -> head_digit s = false ->
  (length ds < fuel)%nat ->
  exists l1, accept_run_loop inp ilen fuel dec_digits_set l = Ok l1 /\ span (backup l1) (w ++ ds) s /\ same l (backup l1).
Proof.
  induction ds as [|c ds IH]; intros l w s fuel Hs Hall Ha Hd Hf; (destruct fuel as [|f]; [cbn in Hf; lia|]); cbn [accept_run_loop].
  - cbn [app] in Hs. rewrite app_nil_r. destruct (next_back inp l w s Hs Ha) as (l1 & Hn & Hs1 & Ho).
    rewrite Hn. cbn [bind].
    assert (E : in_set dec_digits_set (head_rune s) = false).
    { destruct s as [|c s]; [reflexivity|]. cbn in Ha, Hd |- *. rewrite (in_set_dec c Ha). exact Hd. }
    rewrite E. exists l1. split; [reflexivity|]. split; [exact Hs1|exact Ho].
  - inversion Hall as [|? ? Hc Hall']; subst. pose proof (digit_lt c Hc) as Hlt. cbn [app] in Hs.
    destruct (next_ascii inp l w c (ds ++ s) Hs Hlt) as (Hn & Hs'). rewrite Hn. cbn [bind]. rewrite (in_set_dec c Hlt), Hc.
    destruct (IH (adv l) (w ++ [c]) s f Hs' Hall' Ha Hd ltac:(cbn in Hf; lia)) as (l1 & H1 & H2 & H3).
    exists l1. split; [exact H1|]. rewrite <- app_assoc in H2. split; [exact H2|exact H3].
Qed.

Lemma accept_run_digits l w ds s : span l w (ds ++ s) -> all_digits ds -> head_ascii s -> head_digit s = false ->
  exists l1, accept_run inp ilen dec_digits_set l = Ok (match ds with [] => false | _ => true end, l1) /\ span l1 (w ++ ds) s /\ same l l1.
Proof.
  intros Hs Hall Ha Hd.
  destruct (accept_run_loop_digits ds l w s (loop_fuel ilen l) Hs Hall Ha Hd) as (l1 & Hl & Hs1 & Ho).
  { pose proof (span_bounds inp _ _ _ Hs) as (Hb & Hlen). rewrite app_length in Hlen. unfold loop_fuel. lia. }
  exists (backup l1). unfold accept_run. rewrite Hl. cbn [bind]. cbv zeta.
  assert (Hpos : l_pos (backup l1) = l_pos l + Z.of_nat (length ds)).
  { destruct Hs as (_ & _ & Hp). destruct Hs1 as (_ & _ & Hp1). rewrite app_length in Hp1. destruct Ho as (_ & _ & _ & Hst). lia. }
  split; [|split; [exact Hs1|exact Ho]]. f_equal. f_equal. rewrite Hpos. destruct ds; cbn [length]; lia.
Qed.

(* l.input[l.start + k] on a span *)
Lemma byte_at_span l w s k c : span l w s -> nth_error (w ++ s) k = Some c ->
  byte_at inp ilen (l_start l + Z.of_nat k) = Ok (Z.of_N c).
Proof.
  intros (H0 & Hd & Hp) Hn.
  assert (Hlen : (k < length (w ++ s))%nat) by (apply nth_error_Some; congruence).
  pose proof (f_equal (@length _) Hd) as HL. rewrite drop_length in HL.
  unfold byte_at. destruct ((l_start l + Z.of_nat k <? 0) || (ilen <=? l_start l + Z.of_nat k)) eqn:E; [lia|].
  replace (Z.to_nat (l_start l + Z.of_nat k)) with (Z.to_nat (l_start l) + k)%nat by lia.
  rewrite <- drop_drop, Hd.
  assert (Hk : forall (x : bstr) j c', nth_error x j = Some c' -> exists r, drop j x = c' :: r).
  { induction x as [|a x IH]; intros j c' Hj; destruct j; cbn in *; try discriminate.
    - injection Hj as <-. eauto.
    - apply IH. exact Hj. }
  destruct (Hk _ _ _ Hn) as (r & Hr). rewrite Hr. reflexivity.
Qed.

Definition frac_text (frac : option bstr) : bstr := match frac with Some f => 46%N :: f | None => [] end.
Definition exp_text (ex : option (bstr * bstr)) : bstr := match ex with Some (sg, e) => 101%N :: sg ++ e | None => [] end.
Definition sign_text (hs : bool) : bstr := if hs then [45%N] else [].

(* an integer text does not start with a superfluous zero *)
Definition no_lead_zero (ip : bstr) : Prop := match ip with 48%N :: _ :: _ => False | _ => True end.

Lemma in_set_sign c : (c < 128)%N -> in_set num_sign_set (Z.of_N c) = ((c =? 43) || (c =? 45))%N.
Proof. intros Hc. unfold in_set, num_sign_set, mem. cbn [existsb]. lia. Qed.

(* what may follow a number: end of input or an ASCII byte that is not alphanumeric (so neither a digit nor "e") *)
Lemma stops_facts s : stops s -> head_ascii s /\ head_digit s = false /\ in_set num_exp_set (head_rune s) = false.
Proof.
  destruct s as [|c s]; cbn; [auto|]. intros [Hc Ha]. split; [exact Hc|]. unfold alnum_b, letter_b in Ha.
  split; [lia|]. unfold num_exp_set. rewrite in_set_one by lia. unfold digit_b in Ha. lia.
Qed.

(* the mantissa: digits, then either "." digits (a float) or nothing (an integer without a superfluous zero) *)
Lemma scan_mantissa_span hs l1 ip frac rest :
  span l1 (sign_text hs) (ip ++ frac_text frac ++ rest) ->
  all_digits ip -> ip <> [] -> match frac with Some f => all_digits f /\ f <> [] | None => no_lead_zero ip end ->
  head_ascii rest -> head_digit rest = false -> (frac = None -> in_set num_dot_set (head_rune rest) = false) ->
  exists l4, scan_mantissa inp ilen hs l1 = Ok (inr (match frac with Some _ => itemFloat | None => itemInteger end, l4)) /\
             span l4 (sign_text hs ++ ip ++ frac_text frac) rest /\ same l1 l4.
Proof.
  intros Hs Hip Hne Hfr Ha Hd Hdot. unfold scan_mantissa.
  destruct frac as [f|]; cbn [frac_text] in *.
  - destruct Hfr as [Hf Hfne].
    destruct (accept_run_digits l1 _ ip _ Hs Hip ltac:(cbn; lia) ltac:(reflexivity)) as (l2 & Hr & Hs2 & Hsm2).
    rewrite Hr. cbn [bind]. destruct ip as [|d ip]; [congruence|]. cbn [negb].
    destruct (accept_yes inp num_dot_set l2 _ 46%N (f ++ rest) Hs2 eq_refl eq_refl) as (Hacc & Hs3).
    rewrite Hacc. cbn [bind].
    destruct (accept_run_digits (adv l2) _ f rest Hs3 Hf Ha Hd) as (l4 & Hr4 & Hs4 & Hsm4).
    rewrite Hr4. cbn [bind]. destruct f as [|e f]; [congruence|]. cbn [negb].
    exists l4. split; [reflexivity|]. split.
    + repeat rewrite <- app_assoc in Hs4. cbn [app] in Hs4 |- *. repeat rewrite <- app_assoc. exact Hs4.
    + eapply same_trans; [exact Hsm2|]. eapply same_trans; [apply same_adv|exact Hsm4].
  - cbn [app] in Hs. rewrite app_nil_r.
    destruct (accept_run_digits l1 _ ip _ Hs Hip Ha Hd) as (l2 & Hr & Hs2 & Hsm2).
    rewrite Hr. cbn [bind]. destruct ip as [|d ip]; [congruence|]. cbn [negb].
    destruct (accept_no inp num_dot_set l2 _ rest Hs2 Ha (Hdot eq_refl)) as (l3 & Hacc & Hs3 & Hsm3).
    rewrite Hacc. cbn [bind].
    assert (Hst3 : l_start l3 = l_start l1) by (destruct Hsm2 as (_ & _ & _ & A); destruct Hsm3 as (_ & _ & _ & B); congruence).
    assert (Hpos3 : l_pos l3 = l_start l3 + Z.of_nat (length (sign_text hs ++ d :: ip))) by (apply Hs3).
    inversion Hip as [|? ? Hd0 Hip']; subst.
    destruct hs; cbn [negb sign_text app length] in *.
    + pose proof (byte_at_span l3 _ _ 1 d Hs3 ltac:(reflexivity)) as Hb. change (Z.of_nat 1) with 1 in Hb. rewrite Hb. cbn [bind andb orb].
      assert (E : (Z.of_N d =? 48) && (l_start l3 + 2 <? l_pos l3) = false).
      { clear - Hpos3 Hfr. destruct ip as [|d2 ip]; cbn [length] in Hpos3; [lia|]. cbn in Hfr. destruct (N.eqb_spec d 48); [subst; contradiction|lia]. }
      rewrite E. exists l3. split; [reflexivity|]. split; [exact Hs3|eapply same_trans; eassumption].
    + pose proof (byte_at_span l3 _ _ 0 d Hs3 ltac:(reflexivity)) as Hb. change (Z.of_nat 0) with 0 in Hb. rewrite Z.add_0_r in Hb.
      rewrite Hb. cbn [bind andb orb].
      assert (E : (Z.of_N d =? 48) && (l_start l3 + 1 <? l_pos l3) = false).
      { clear - Hpos3 Hfr. destruct ip as [|d2 ip]; cbn [length] in Hpos3; [lia|]. cbn in Hfr. destruct (N.eqb_spec d 48); [subst; contradiction|lia]. }
      rewrite E. rewrite ?Bool.orb_false_r.
      exists l3. split; [reflexivity|]. split; [exact Hs3|eapply same_trans; eassumption].
Qed.

Definition sign_ok (sg : bstr) : Prop := sg = [] \/ sg = [43%N] \/ sg = [45%N].

Lemma scan_exponent_span t l4 w ex s :
  span l4 w (exp_text ex ++ s) ->
  match ex with Some (sg, e) => sign_ok sg /\ all_digits e /\ e <> [] | None => True end -> stops s ->
  exists l7, scan_exponent inp ilen t l4 = Ok (inr (match ex with Some _ => itemFloat | None => t end, l7)) /\
             span l7 (w ++ exp_text ex) s /\ same l4 l7.
Proof.
  intros Hs Hex Hst. destruct (stops_facts s Hst) as (Ha & Hd & Hne). unfold scan_exponent.
  destruct ex as [[sg e]|]; cbn [exp_text] in *.
  - destruct Hex as (Hsg & He & Hene). cbn [app] in Hs.
    destruct (accept_yes inp num_exp_set l4 w 101%N ((sg ++ e) ++ s) Hs eq_refl eq_refl) as (Hacc & Hs5).
    rewrite Hacc. cbn [bind].
    assert (Hsgn : exists l6, (exists bsg, accept inp ilen num_sign_set (adv l4) = Ok (bsg, l6)) /\ span l6 ((w ++ [101%N]) ++ sg) (e ++ s) /\ same (adv l4) l6).
    { destruct Hsg as [ -> | [ -> | -> ] ].
      - cbn [app] in Hs5. rewrite app_nil_r.
        destruct e as [|d e]; [congruence|]. inversion He as [|? ? Hd0 _]; subst. pose proof (digit_lt d Hd0) as Hlt.
        destruct (accept_no inp num_sign_set (adv l4) _ (d :: e ++ s) Hs5 Hlt) as (l6 & A & B & C).
        { cbn [head_rune]. rewrite (in_set_sign d Hlt). unfold digit_b in Hd0. lia. }
        exists l6. split; [eauto|]. split; assumption.
      - cbn [app] in Hs5. destruct (accept_yes inp num_sign_set (adv l4) _ 43%N (e ++ s) Hs5 eq_refl eq_refl) as (A & B).
        exists (adv (adv l4)). split; [eauto|]. split; [exact B|apply same_adv].
      - cbn [app] in Hs5. destruct (accept_yes inp num_sign_set (adv l4) _ 45%N (e ++ s) Hs5 eq_refl eq_refl) as (A & B).
        exists (adv (adv l4)). split; [eauto|]. split; [exact B|apply same_adv]. }
    destruct Hsgn as (l6 & (bsg & Hacc2) & Hs6 & Hsm6). rewrite Hacc2. cbn [bind].
    destruct (accept_run_digits l6 _ e s Hs6 He Ha Hd) as (l7 & Hr & Hs7 & Hsm7). rewrite Hr. cbn [bind].
    destruct e as [|d e]; [congruence|]. cbn [negb]. exists l7. split; [reflexivity|]. split.
    + repeat rewrite <- app_assoc in Hs7. cbn [app] in Hs7 |- *. exact Hs7.
    + eapply same_trans; [apply same_adv|]. eapply same_trans; [exact Hsm6|exact Hsm7].
  - cbn [app] in Hs. rewrite app_nil_r.
    destruct (accept_no inp num_exp_set l4 w s Hs Ha Hne) as (l5 & Hacc & Hs5 & Hsm5). rewrite Hacc. cbn [bind].
    exists l5. split; [reflexivity|]. split; assumption.
Qed.

(* the hexadecimal test `len(input) >= pos+2 && input[pos:pos+2] == "0x"` fails on a decimal text *)
Lemma hex_check_false l1 w d R : span l1 w (d :: R) -> digit_b d = true ->
  match R with c2 :: _ => c2 <> 120%N | [] => True end ->
  (if l_pos l1 + 2 <=? ilen then pre <- slice inp ilen (l_pos l1) (l_pos l1 + 2) ;; Ok (bstr_eqb pre num_hex_prefix) else Ok false) = Ok false.
Proof.
  intros Hs Hd Hc. pose proof (span_bounds inp _ _ _ Hs) as (Hb & Hlen). pose proof (span_cur inp _ _ _ Hs) as (Hp & Hdr).
  destruct R as [|c2 R]; cbn [length] in Hlen.
  - destruct (l_pos l1 + 2 <=? ilen) eqn:E; [lia|reflexivity].
  - destruct (l_pos l1 + 2 <=? ilen) eqn:E; [|reflexivity].
    unfold slice. destruct ((l_pos l1 <? 0) || (l_pos l1 + 2 <? l_pos l1) || (ilen <? l_pos l1 + 2)) eqn:E2; [lia|].
    rewrite Hdr. replace (Z.to_nat (l_pos l1 + 2 - l_pos l1)) with 2%nat by lia. cbn [take bind].
    unfold num_hex_prefix. cbn [bstr_eqb]. destruct (N.eqb_spec c2 120); [congruence|]. rewrite Bool.andb_false_r. reflexivity.
Qed.

Lemma span_unread l w c s : span l (w ++ [c]) s -> l_width l = 1 -> span (backup l) w (c :: s).
Proof.
  intros (H0 & Hd & Hp) Hw. rewrite <- app_assoc in Hd. rewrite app_length in Hp.
  unfold LexTokens.span, backup, set_pos. cbn [l_start l_pos length] in *. repeat split; try assumption; lia.
Qed.

End Digits.

Definition num_type (frac : option bstr) (ex : option (bstr * bstr)) : N :=
  match frac, ex with None, None => itemInteger | _, _ => itemFloat end.

Definition num_text (hs : bool) (ip : bstr) (frac : option bstr) (ex : option (bstr * bstr)) : bstr :=
  sign_text hs ++ ip ++ frac_text frac ++ exp_text ex.

Definition num_ok (ip : bstr) (frac : option bstr) (ex : option (bstr * bstr)) : Prop :=
  all_digits ip /\ ip <> [] /\ match frac with Some f => all_digits f /\ f <> [] | None => no_lead_zero ip end /\
  match ex with Some (sg, e) => sign_ok sg /\ all_digits e /\ e <> [] | None => True end.

(* what may follow a number: not alphanumeric, and no "." after an integer *)
Definition num_follow (frac : option bstr) (ex : option (bstr * bstr)) (s : bstr) : Prop :=
  stops s /\ (frac = None -> ex = None -> match s with c :: _ => c <> 46%N | [] => True end).

Lemma num_follow_dot frac ex s : num_follow frac ex s -> frac = None -> ex = None -> in_set num_dot_set (head_rune s) = false.
Proof.
  intros [Hst Hd] Hf He. specialize (Hd Hf He). destruct s as [|c s]; [reflexivity|]. cbn in Hst |- *. destruct Hst as [Hc _].
  unfold num_dot_set. rewrite in_set_one by lia. lia.
Qed.

Section Numbers.
Variable uni_letter uni_digit : Z -> bool.
Hypothesis letter_ascii : forall c, (c < 128)%N -> uni_letter (Z.of_N c) = ((65 <=? c) && (c <=? 90) || (97 <=? c) && (c <=? 122))%N.
Hypothesis digit_ascii : forall c, (c < 128)%N -> uni_digit (Z.of_N c) = digit_b c.
Hypothesis letter_eof : uni_letter (-1) = false.
Hypothesis digit_eof : uni_digit (-1) = false.
Variable inp : bstr.
Variable base : Z.
Notation ilen := (Z.of_nat (length inp)).
Notation steps := (steps uni_letter uni_digit inp base).
Notation span := (span inp).

Lemma scan_number_span hs l ip frac ex s :
  span l [] (sign_text hs ++ ip ++ frac_text frac ++ exp_text ex ++ s) ->
  all_digits ip -> ip <> [] -> match frac with Some f => all_digits f /\ f <> [] | None => no_lead_zero ip end ->
  match ex with Some (sg, e) => sign_ok sg /\ all_digits e /\ e <> [] | None => True end ->
  stops s -> (frac = None -> ex = None -> in_set num_dot_set (head_rune s) = false) ->
  exists l', scan_number uni_letter uni_digit inp ilen l = Ok (num_type frac ex, true, l') /\
             span l' (sign_text hs ++ ip ++ frac_text frac ++ exp_text ex) s /\ same l l'.
Proof.
  intros Hs Hip Hne Hfr Hex Hst Hdot. destruct (stops_facts s Hst) as (Ha & Hd & Hnexp).
  destruct ip as [|d ip]; [congruence|]. inversion Hip as [|? ? Hd0 Hip']; subst. pose proof (digit_lt d Hd0) as Hlt.
  assert (Hsign : exists l1, accept inp ilen num_sign_set l = Ok (hs, l1) /\ span l1 (sign_text hs) ((d :: ip) ++ frac_text frac ++ exp_text ex ++ s) /\ same l l1).
  { destruct hs; cbn [sign_text app] in Hs |- *.
    - destruct (accept_yes inp num_sign_set l [] 45%N _ Hs eq_refl eq_refl) as (A & B). exists (adv l). split; [exact A|]. split; [exact B|apply same_adv].
    - destruct (accept_no inp num_sign_set l [] _ Hs Hlt) as (l1 & A & B & C).
      { cbn [head_rune]. rewrite (in_set_sign d Hlt). unfold digit_b in Hd0. lia. }
      exists l1. split; [exact A|]. split; assumption. }
  destruct Hsign as (l1 & Hacc & Hs1 & Hsm1).
  unfold scan_number. rewrite Hacc. cbn [bind].
  assert (Hx : match ip ++ frac_text frac ++ exp_text ex ++ s with c2 :: _ => c2 <> 120%N | [] => True end).
  { destruct ip as [|d2 ip]; cbn [app].
    - destruct frac as [f|]; cbn [frac_text app]; [discriminate|]. destruct ex as [[sg e]|]; cbn [exp_text app]; [discriminate|].
      destruct s as [|c s]; [exact I|]. cbn in Hst. destruct Hst as [_ Hna]. clear - Hna. unfold alnum_b, letter_b in Hna. lia.
    - inversion Hip' as [|? ? Hd2 _]; subst. clear - Hd2. unfold digit_b in Hd2. lia. }
  cbn [app] in Hs1. rewrite (hex_check_false inp l1 _ d _ Hs1 Hd0 Hx). cbn [bind].
  assert (Hrest : head_ascii (exp_text ex ++ s) /\ head_digit (exp_text ex ++ s) = false /\
                  (frac = None -> in_set num_dot_set (head_rune (exp_text ex ++ s)) = false)).
  { destruct ex as [[sg e]|]; cbn [exp_text app]; [cbn; repeat split; try lia; reflexivity|]. repeat split; try assumption. intros Hf. apply Hdot; [exact Hf|reflexivity]. }
  destruct Hrest as (Har & Hdr & Hdotr).
  change (d :: ip ++ frac_text frac ++ exp_text ex ++ s) with ((d :: ip) ++ frac_text frac ++ exp_text ex ++ s) in Hs1.
  destruct (scan_mantissa_span inp hs l1 (d :: ip) frac (exp_text ex ++ s) Hs1 Hip ltac:(discriminate) Hfr Har Hdr Hdotr) as (l4 & Hm & Hs4 & Hsm4).
  rewrite Hm. cbn [bind].
  destruct (scan_exponent_span inp (match frac with Some _ => itemFloat | None => itemInteger end) l4 _ ex s Hs4 Hex Hst) as (l7 & He & Hs7 & Hsm7).
  rewrite He. cbn [bind].
  (* the next thing must not be alphanumeric *)
  destruct (peek_same inp l7 _ s Hs7 Ha) as (l8 & Hp & Hs8 & Hsm8).
  rewrite Hp. cbn [bind].
  assert (Hal : is_alnum uni_letter uni_digit (head_rune s) = false).
  { destruct s as [|c s]; cbn [head_rune]; [apply is_alnum_eof; assumption|].
    cbn in Hst. destruct Hst as [Hc Hna]. erewrite is_alnum_ascii; eauto. }
  rewrite Hal. exists l8. split.
  - f_equal. f_equal. f_equal. unfold num_type. destruct frac, ex as [[? ?]|]; reflexivity.
  - split; [repeat rewrite <- app_assoc in Hs8; repeat rewrite <- app_assoc; exact Hs8|].
    eapply same_trans; [exact Hsm1|]. eapply same_trans; [exact Hsm4|]. eapply same_trans; [exact Hsm7|exact Hsm8].
Qed.

Lemma lex_number_span hs lb ip frac ex s :
  span lb [] (num_text hs ip frac ex ++ s) -> num_ok ip frac ex -> num_follow frac ex s ->
  exists l1, step uni_letter uni_digit inp ilen base LNumber lb = emit_to inp ilen base (num_type frac ex) LInsideTag l1 /\
             span l1 (num_text hs ip frac ex) s /\ unsent lb l1.
Proof.
  intros Hs (Hip & Hne & Hfr & Hex) Hfo. unfold num_text in *. repeat rewrite <- app_assoc in Hs.
  destruct (scan_number_span hs lb ip frac ex s Hs Hip Hne Hfr Hex (proj1 Hfo) (num_follow_dot _ _ _ Hfo)) as (l1 & Hsn & Hs1 & A & B & C & _).
  exists l1. split; [|split; [exact Hs1|exact (conj A (conj B C))]].
  cbn [step]. unfold lex_number. rewrite Hsn. reflexivity.
Qed.

Lemma lex_number_pos l ip frac ex s :
  span l [] (num_text false ip frac ex ++ s) -> num_ok ip frac ex -> num_follow frac ex s ->
  exists l', steps 2 LInsideTag l = Ok (LInsideTag, l') /\ span l' [] s /\ sent (num_type frac ex) (num_text false ip frac ex) l l'.
Proof.
  intros Hs Hok Hfo. pose proof Hok as (Hip & Hne & _).
  destruct ip as [|d ip]; [congruence|]. inversion Hip as [|? ? Hd0 _]; subst. pose proof (digit_lt d Hd0) as Hlt.
  destruct (next_ascii inp l [] d _ Hs Hlt) as (Hn & _).
  destruct (lex_number_span false _ (d :: ip) frac ex s (span_backup inp l [] d _ Hs) Hok Hfo) as (l1 & H2 & Hs1 & Hu1).
  refine (steps2_sends (inside_tag_digit _ _ _ _ _ _ _ Hn _) Hs1 Hu1 H2 ltac:(repeat split)).
  unfold gen_isDigit, digit_b in *. lia.
Qed.

(* a number that starts with "-", where an operand is expected *)
Lemma lex_number_neg l ip frac ex s :
  span l [] (num_text true ip frac ex ++ s) -> ends_term (t_typ (l_last l)) = false -> num_ok ip frac ex -> num_follow frac ex s ->
  exists l', steps 2 LInsideTag l = Ok (LInsideTag, l') /\ span l' [] s /\ sent (num_type frac ex) (num_text true ip frac ex) l l'.
Proof.
  intros Hs Het Hok Hfo. pose proof Hok as (Hip & Hne & _).
  destruct ip as [|d ip]; [congruence|]. inversion Hip as [|? ? Hd0 _]; subst. pose proof (digit_lt d Hd0) as Hlt.
  destruct (next_ascii inp l [] 45%N _ Hs ltac:(lia)) as (Hn & Hs1).
  (* lexNegative peeks twice at the digit, then steps back over the "-" *)
  destruct (next_ascii inp _ _ d _ Hs1 Hlt) as (Hp1 & _). pose proof (span_backup inp _ _ d _ Hs1) as Hsp1.
  destruct (next_ascii inp _ _ d _ Hsp1 Hlt) as (Hp2 & _). pose proof (span_backup inp _ _ d _ Hsp1) as Hsp2.
  destruct (lex_number_span true _ (d :: ip) frac ex s (span_unread inp _ [] _ _ Hsp2 eq_refl) Hok Hfo) as (l3 & H2 & Hs3 & Hu3).
  refine (steps2_sends (l := l) _ Hs3 Hu3 H2 ltac:(repeat split)).
  cbn [step]. unfold lex_inside_tag. rewrite Hn. cbn [bind]. eval_tests.
  unfold lex_negative, peek. change (l_last (adv l)) with (l_last l). rewrite Het. cbn [negb]. rewrite Hp1. cbn [bind].
  unfold digit_b in Hd0. replace (48 <=? Z.of_N d) with true by lia. rewrite Hp2. cbn [bind]. replace (Z.of_N d <=? 57) with true by lia.
  reflexivity.
Qed.

End Numbers.
