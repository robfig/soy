(* C17, print commands through the file entry point: parse.SoyFile on the string PrintNode.String() writes.
   The scanner half is lex_print_command_tbl (Proofs/PrintCmdText.v); the parser half is the dispatch itemList -> textOrTag -> beginTag
   (implicit print) -> parsePrint of Model/Parser.v, related here to the expression-level parsePrint model
   (Model/ExprParser.v parse_print) by a simulation on successful runs, and brought to the entry point's own
   budget by the monotonicity of the command-level model (Proofs/CmdParserFuel.v) and its totality
   (Proofs/ParserProofs.v). *)
From Soy Require Import Model.Bytes Model.Num Model.Values Model.Outcome Model.Ast Model.Token Model.RawText Model.ExprParser Model.Parser
  Model.AstPrint Model.Lexer Generated.Tables Spec.ExprSyntax
  Proofs.ParserMeasure Proofs.ExprTotal Proofs.ParserProofs Proofs.LexParseBridge Proofs.LexerProofs
  Proofs.ExprParserProofs Proofs.ExprParserStrip Proofs.ExprParserFuel Proofs.PlaceholderTextProofs
  Proofs.LexPrintMain Proofs.LexParseText Proofs.LexPrintCmd Proofs.PrintCmdText Proofs.CmdRoundtripBase Proofs.CmdRoundtripPrint
  Proofs.CmdParserFuel Proofs.ParseBodyText Proofs.ParseEndToEnd Proofs.ExprParserRules.
From Coq Require Import ZifyBool Lia.
Open Scope N_scope.

(* a tree under SOME budget is the tree of parse.SoyFile's own budget *)
Lemma soy_file_of_big_fuel inlen lexq unq ts F n s : lexq_wf lexq -> items_wf inlen ts ->
  item_list inlen lexq unq parse_expr expr_fuel F u_eof (cst_init ts) = COk n s ->
  po_result (soy_file inlen lexq unq ts) = POk n (c_p s).
Proof.
  intros Hq Hw HF. pose proof (soy_file_total inlen lexq unq Hq ts Hw) as Ht.
  unfold soy_file, parse_file in *.
  assert (Hne : item_list inlen lexq unq parse_expr expr_fuel (file_fuel ts) u_eof (cst_init ts) <> CFuel).
  { intros E. rewrite E in Ht. cbn in Ht. exact Ht. }
  rewrite (item_list_agree inlen lexq unq expr_fuel (file_fuel ts) F u_eof (cst_init ts) Hne ltac:(rewrite HF; discriminate)), HF.
  reflexivity.
Qed.

(* ---- cmd_print / cmd_print_loop / directive_args (Model/Parser.v) follow parse_print / print_loop /
   directive_args_loop (Model/ExprParser.v) on every successful run ---- *)
Section Sim.
Variable inlen : N.
Notation PINV := (pinv inlen 0 false).
Variable s : cst.
Variable g : nat.
Notation PE := (lift_expr inlen parse_expr g).

Lemma sim_next p t p1 : PINV p -> p_next p = (t, p1) ->
  c_next (set_p s p) = COk t (set_p s p1) /\ PINV p1 /\ PINV (p_backup p1).
Proof.
  intros Hi E. pose proof (p_next_rel inlen 0 false p Hi) as R. rewrite E in R. cbn [fst snd] in R.
  split; [|split; [apply R|apply R]].
  unfold c_next. cbn [c_p set_p].
  assert (H : (3 <=? p_peek p)%nat = false) by (apply Nat.leb_gt; pose proof (pi_peek _ _ _ _ Hi); lia).
  rewrite H, E. reflexivity.
Qed.

Lemma sim_pe p e p' : PINV p -> parse_expr g 0 p = POk e p' -> PE 0 (set_p s p) = COk e (set_p s p') /\ PINV p'.
Proof.
  intros Hi E. split.
  - unfold lift_expr. cbn [c_p set_p]. rewrite E. reflexivity.
  - set (G := max g (S (mu p))).
    assert (EG : parse_expr G 0 p = POk e p').
    { destruct (parse_expr_le g G ltac:(lia) 0 p) as [H|H]; [rewrite E in H; discriminate|rewrite <- H; exact E]. }
    pose proof (parse_expr_ok inlen 0 false G 0 p (kap p) Hi eq_refl ltac:(lia)) as P. rewrite EG in P. apply P.
Qed.

Lemma sim_dargs : forall f f2, (f <= f2)%nat -> forall args p r p', PINV p ->
  directive_args_loop (parse_expr g) f args p = POk r p' ->
  directive_args PE f2 args (set_p s p) = COk r (set_p s p') /\ PINV p'.
Proof.
  induction f as [|f IH]; intros f2 Hle args p r p' Hi E; [discriminate|]. destruct f2 as [|f2]; [lia|].
  cbn [directive_args_loop] in E. cbn [directive_args]. destruct (p_next p) as [nx p1] eqn:En.
  destruct (sim_next p nx p1 Hi En) as (Hn & Hi1 & Hib). rewrite Hn. cbn [cbind].
  change (tis nx pit_Colon || tis nx pit_Comma) with ((t_typ nx =? pk_itemColon) || (t_typ nx =? pk_itemComma)).
  destruct ((t_typ nx =? pk_itemColon) || (t_typ nx =? pk_itemComma)).
  - destruct (parse_expr g 0 p1) as [e p2| | |] eqn:Ee; cbn [pbind] in E; try discriminate.
    destruct (sim_pe p1 e p2 Hi1 Ee) as (Hpe & Hi2). rewrite Hpe. cbn [cbind]. apply (IH f2 ltac:(lia)); assumption.
  - injection E as <- <-. split; [reflexivity|exact Hib].
Qed.

Lemma sim_ploop : forall f f2, (f <= f2)%nat -> (f <= g)%nat -> forall q e dirs p n p', PINV p ->
  print_loop (parse_expr g) f q e dirs p = POk n p' ->
  cmd_print_loop inlen PE g f2 q e dirs (set_p s p) = COk n (set_p s p') /\ PINV p'.
Proof.
  induction f as [|f IH]; intros f2 Hle Hg q e dirs p n p' Hi E; [discriminate|]. destruct f2 as [|f2]; [lia|].
  cbn [print_loop] in E. cbn [cmd_print_loop]. destruct (p_next p) as [t p1] eqn:En.
  destruct (sim_next p t p1 Hi En) as (Hn & Hi1 & Hib). rewrite Hn. cbn [cbind].
  change (tis t pit_RightDelim) with (t_typ t =? pk_itemRightDelim). destruct (t_typ t =? pk_itemRightDelim).
  { injection E as <- <-. split; [reflexivity|exact Hi1]. }
  change (tis t pit_Pipe) with (t_typ t =? pk_itemPipe). destruct (t_typ t =? pk_itemPipe).
  2:{ unfold p_unexpected in E. destruct (t_typ t =? pk_itemError); discriminate. }
  unfold p_expect in E. unfold c_expect. destruct (p_next p1) as [id p2] eqn:En2.
  destruct (sim_next p1 id p2 Hi1 En2) as (Hn2 & Hi2 & _). rewrite Hn2. cbn [cbind].
  change (tis id pit_Ident) with (t_typ id =? pk_itemIdent). destruct (t_typ id =? pk_itemIdent).
  2:{ unfold p_unexpected in E. destruct (t_typ id =? pk_itemError); discriminate. }
  cbn [pbind] in E.
  destruct (directive_args_loop (parse_expr g) (S f) [] p2) as [args p3| | |] eqn:Ed; cbn [pbind] in E; try discriminate.
  destruct (sim_dargs (S f) g Hg [] p2 args p3 Hi2 Ed) as (Hd & Hi3). cbn [cbind]. rewrite Hd. cbn [cbind].
  apply (IH f2 ltac:(lia) ltac:(lia)); assumption.
Qed.

Lemma sim_print token p n p' : PINV p -> parse_print g (t_pos token) p = POk n p' ->
  cmd_print inlen PE g token (set_p s p) = COk n (set_p s p') /\ PINV p'.
Proof.
  intros Hi E. unfold parse_print, parse_print_body in E. unfold cmd_print.
  destruct (parse_expr g 0 p) as [e p1| | |] eqn:Ee; cbn [pbind] in E; try discriminate.
  destruct (sim_pe p e p1 Hi Ee) as (Hpe & Hi1). rewrite Hpe. cbn [cbind].
  apply (sim_ploop g g (le_n _) (le_n _)); assumption.
Qed.
End Sim.

Lemma start_not_eof x : mem (t_typ x) expr_start_types = true -> one_of (t_typ x) u_eof = false.
Proof.
  intros H. unfold mem, expr_start_types in H. cbn [existsb] in H.
  repeat (apply Bool.orb_true_iff in H; destruct H as [H|H]); try discriminate H; apply N.eqb_eq in H; rewrite H; reflexivity.
Qed.

(* parse.SoyFile(String(n)) = a file whose one node is n, up to node positions *)
Theorem print_command_file_roundtrip lexq unq p arg dirs txt :
  lexq_wf lexq ->
  wf_print (NPrint p arg dirs) -> lex_ok_print (NPrint p arg dirs) -> print_node (NPrint p arg dirs) = Some txt ->
  exists items pos n' st,
    lex_items is_letter_tbl is_digit_tbl (lex_budget txt) false txt = Ok items /\
    po_result (soy_file (N.of_nat (length txt)) lexq unq items) = POk (NList pos [n']) st /\
    strip_pos n' = strip_pos (NPrint p arg dirs).
Proof.
  intros Hq Hwf Hlo Hp.
  destruct (lex_print_command_tbl _ txt Hwf Hlo Hp) as (ld & mid & e & Hlex & Hld & _ & Hm & He).
  destruct tables_eof as [El Ed].
  pose proof (lex_items_wf _ _ El Ed _ _ Hlex) as Hw. set (inlen := N.of_nat (length txt)) in *.
  (* the first item of the command starts an expression *)
  pose proof Hwf as [Hwa Hwd].
  destruct (show_starts_expression sty_min arg Hwa [0%nat] (sty_min [0%nat])) as (x & lx & Ex & Hx).
  assert (Hk : exists k mid', mid = k :: mid' /\ t_typ k = t_typ x).
  { unfold tokens_of_print in Hm. cbn [show_print] in Hm. rewrite Ex in Hm. cbn [app map] in Hm.
    destruct mid as [|k mid']; [discriminate Hm|]. exists k, mid'. split; [reflexivity|].
    exact (f_equal (fun l : list (N * bstr) => match l with a :: _ => fst a | [] => 0 end) Hm). }
  destruct Hk as (k & mid' & -> & Hkx). rewrite <- Hkx in Hx.
  set (l := mid' ++ [e]). set (items := ld :: (k :: mid') ++ [e]) in *.
  (* the state in which beginTag calls parsePrint: "{" and the first item read, the first item backed up *)
  set (pk := {| p_rest := l; p_tok0 := k; p_tok1 := zero_tok; p_peek := 1; p_recv := 2 |}).
  assert (Hwl : Forall (twf inlen) (k :: l) /\ twf inlen ld).
  { unfold items_wf, items in Hw. inversion Hw as [|? ? H1 H2]; subst. split; assumption. }
  destruct Hwl as [Hwkl Hwld]. inversion Hwkl as [|? ? Hwk Hwl]; subst.
  assert (Hpk : pinv inlen 0 false pk).
  { constructor; cbn [pk p_peek p_rest p_tok0 p_tok1 p_recv]; auto using twf_zero; try lia; try (intros E; discriminate E). }
  assert (Hspk : stream pk = (k :: mid') ++ [e] /\ inv pk) by (split; [reflexivity|unfold inv; cbn; lia]).
  destruct Hspk as [Hspk Hipk].
  (* the expression-level parsePrint on these items, at this state *)
  pose proof (wf_print_strip _ Hwf) as Hwf0. cbn [strip_pos] in Hwf0.
  assert (Hmid : map strip_tok (k :: mid') = tokens_of_print (NPrint 0 (strip_pos arg) (map strip_pos dirs))).
  { change (NPrint 0 (strip_pos arg) (map strip_pos dirs)) with (strip_pos (NPrint p arg dirs)).
    unfold tokens_of_print. rewrite show_print_strip. apply tv_strip. exact Hm. }
  assert (Hsz : stream (zs pk) = show_print sty_min [] (NPrint 0 (strip_pos arg) (map strip_pos dirs)) ++ [strip_tok e]).
  { rewrite stream_zs, Hspk, map_app, Hmid. reflexivity. }
  destruct (parse_show_print sty_min [] 0 _ _ [strip_tok e] Hwf0 (zs pk) Hsz ltac:(unfold inv, zs; cbn; lia))
    as (st0 & Hst0 & _ & f0 & HF).
  set (G1 := S (S (max f0 (length items)))). set (G := S G1).
  assert (HG : (f0 <= G)%nat) by exact (le_S _ _ (le_S _ _ (le_S _ _ (Nat.le_max_l f0 (length items))))).
  pose proof (parse_print_sim G (t_pos k) pk) as [Hsim _]. rewrite (HF G G HG HG) in Hsim.
  destruct (zr_ok_inv _ _ _ _ Hsim) as (n' & p' & Hrun & Hn' & Hzs).
  set (s0 := cst_init items).
  destruct (sim_print inlen s0 G k pk n' p' Hpk Hrun) as (Hcmd & Hp').
  (* what is left: one item of type EOF *)
  assert (Hrest : exists e', stream p' = [e'] /\ t_typ e' = pit_EOF).
  { pose proof (stream_zs p') as Hz. rewrite Hzs, Hst0 in Hz. destruct (stream p') as [|e' r]; [discriminate Hz|].
    destruct r; [|discriminate Hz]. exists e'. split; [reflexivity|]. cbn [map] in Hz. injection Hz as Hz.
    transitivity (t_typ e); [congruence|exact He]. }
  destruct Hrest as (e' & Hsp' & He').
  assert (Hip' : inv p') by (unfold inv; apply (pi_peek _ _ _ _ Hp')).
  (* the outer loop: "{" -> beginTag -> the implicit print; then EOF *)
  destruct (eof_iter inlen lexq unq parse_expr expr_fuel (lift_expr inlen parse_expr G) (item_list inlen lexq unq parse_expr expr_fuel G) G
              [] e' [] G1 (Some (t_pos ld)) [n'] (set_p s0 p') ltac:(constructor) He' Hsp' Hip' ltac:(unfold G, G1; cbn [length]; lia))
    as (pos1 & s' & Hend).
  exists items, pos1, n', (c_p s'). split; [exact Hlex|]. split; [|exact Hn'].
  apply (soy_file_of_big_fuel inlen lexq unq items (S G) (NList pos1 [n']) s' Hq Hw).
  rewrite <- Hend. rewrite item_list_S, item_list_loop_S. fold G. fold s0.
  (* first iteration, by computation on the initial state *)
  assert (Hn1 : c_next s0 = COk ld (set_p s0 {| p_rest := k :: l; p_tok0 := ld; p_tok1 := zero_tok; p_peek := 0; p_recv := 1 |})) by reflexivity.
  rewrite Hn1. cbn [cbind]. unfold text_or_tag.
  assert (Hsk : forall st, skip_comments G ld st = COk ld st).
  { intros st. unfold G. apply skip_non. rewrite Hld. discriminate. }
  cbv zeta.
  rewrite Hsk. cbn [cbind].
  assert (H1 : one_of (t_typ ld) u_eof = false) by (rewrite Hld; reflexivity). rewrite H1.
  assert (Hn2 : c_next (set_p s0 {| p_rest := k :: l; p_tok0 := ld; p_tok1 := zero_tok; p_peek := 0; p_recv := 1 |})
                = COk k (set_p s0 {| p_rest := l; p_tok0 := k; p_tok1 := zero_tok; p_peek := 0; p_recv := 2 |})) by reflexivity.
  rewrite Hn2. cbn [cbind]. rewrite (start_not_eof k Hx), Bool.andb_false_r. cbv zeta.
  assert (H2 : tis ld pit_Text = false) by (unfold tis; rewrite Hld; reflexivity).
  assert (H3 : tis ld pit_LeftDelim = true) by (unfold tis; rewrite Hld; reflexivity). rewrite H2, H3.
  change (c_backup (set_p s0 {| p_rest := l; p_tok0 := k; p_tok1 := zero_tok; p_peek := 0; p_recv := 2 |}))
    with (set_ps s0 pk []).
  rewrite (begin_tag_implicit inlen lexq unq expr_fuel G k s0 pk [] {| p_rest := l; p_tok0 := k; p_tok1 := zero_tok; p_peek := 0; p_recv := 2 |} Hx eq_refl).
  change (set_ps s0 (p_backup {| p_rest := l; p_tok0 := k; p_tok1 := zero_tok; p_peek := 0; p_recv := 2 |}) []) with (set_p s0 pk).
  rewrite Hcmd. cbn [cbind snd fst app]. reflexivity.
Qed.
