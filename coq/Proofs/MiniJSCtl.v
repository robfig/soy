(* C04, the statement stages, the JavaScript side: executing the MiniJS statement the generator makes of a statement of
   the subset appends the text the subset semantics gives (js_exec_all); with what the three sides share: the
   unfolding equations of the subset semantics and of the generator, generated names and the generator's invariant,
   the arithmetic of range(). *)
From Soy Require Import Model.Bytes Model.Num Model.Values Model.Outcome Model.Ast Model.JsGen Model.MiniJS
  Model.Escape Model.Directives Model.Print Generated.Tables Model.Interp
  Proofs.EscapeProofs Proofs.MiniJSProofs Proofs.MiniJSPrint Proofs.MiniJSStmt Model.MsgId Proofs.MsgIdProofs.
Open Scope N_scope.

Scheme cstmt_m := Induction for cstmt Sort Prop
  with cblk_m := Induction for cblk Sort Prop
  with celse_m := Induction for celse Sort Prop
  with ccases_m := Induction for ccases Sort Prop
  with cparams_m := Induction for cparams Sort Prop
  with cplur_m := Induction for cplur Sort Prop.
Combined Scheme cstmt_mutind from cstmt_m, cblk_m, celse_m, ccases_m, cparams_m, cplur_m.

(* the option monad of the subset semantics: what a successful step was made of *)
Lemma some_bind {A B} (o : option A) (f : A -> option B) y :
  match o with Some x => f x | None => None end = Some y -> exists x, o = Some x /\ f x = Some y.
Proof. destruct o as [x|]; [eauto|discriminate]. Qed.
Lemma some_if {A} (c : bool) (o : option A) y : (if c then o else None) = Some y -> c = true /\ o = Some y.
Proof. destruct c; [auto|discriminate]. Qed.
Lemma some_ifn {A} (c : bool) (o : option A) y : (if c then None else o) = Some y -> c = false /\ o = Some y.
Proof. destruct c; [discriminate|auto]. Qed.
(* a statement that binds nothing gives its environment back *)
Lemma some_with {A B} (o : option A) (e e' : B) y :
  match o with Some t => Some (t, e) | None => None end = Some (y, e') -> o = Some y /\ e' = e.
Proof. destruct o; [intro H; inversion H; auto|discriminate]. Qed.

(* ---- unfolding equations of the mutual definitions (cbn does not refold them) ---- *)
Section Eqs.
Variable ij : option value.
Variable mode : N.
Variable pt : N -> list pdir -> bstr -> bstr.
Variable buf : bstr.
Variable dv : bstr -> option value.
Variable cl : bstr -> (bstr -> option value) -> option bstr.
Notation sout' := (sout ij mode pt dv cl). Notation bout' := (bout ij mode pt dv cl). Notation eout' := (eout ij mode pt dv cl). Notation kout' := (kout ij mode pt dv cl).
Notation pout' := (pout ij mode pt dv cl). Notation qout' := (qout ij mode pt dv cl).
Lemma sout_raw env t : sout' env (SRaw t) = Some (t, env). Proof. reflexivity. Qed.
Lemma sout_print env e ds : sout' env (SPrint e ds)
  = match ceval ij env e with
    | Some v => match scalar_string v with
                | Some str => if cleanb str then Some (pt mode ds str, env) else None
                | None => None
                end
    | None => None
    end.
Proof. reflexivity. Qed.
Lemma sout_let env name e : sout' env (SLet name e)
  = if bstr_eqb name n_ij then None else if is_ident name then match ceval ij env e with Some v => Some ([], env_set env name v) | None => None end else None.
Proof. reflexivity. Qed.
Lemma sout_letc env name body : sout' env (SLetC name body)
  = if bstr_eqb name n_ij then None else if is_ident name then match bout' env body with Some t => Some ([], env_set env name (VStr t)) | None => None end else None.
Proof. reflexivity. Qed.
Lemma sout_if env c th rest : sout' env (SIf c th rest)
  = match ceval ij env c with
    | Some v => match (if truthy v then bout' env th else eout' env rest) with Some t => Some (t, env) | None => None end
    | None => None
    end.
Proof. reflexivity. Qed.
Lemma sout_switch env v cs : sout' env (SSwitch v cs)
  = match ceval ij env v with
    | Some sv => if prim_value sv then match kout' env sv cs with Some t => Some (t, env) | None => None end else None
    | None => None
    end.
Proof. reflexivity. Qed.
Lemma sout_for env x e body hasie ie : sout' env (SFor x e body hasie ie)
  = if is_ident x && negb (bstr_eqb x n_ij) then
      match ceval ij env e with
      | Some (VList _ l) =>
          if small (Z.of_nat (length l)) then
            match l with
            | [] => if hasie then match bout' env ie with Some t => Some (t, env) | None => None end else Some ([], env)
            | _ :: _ =>
                match for_out (fun en => bout' en body) x (env_set env (x ++ c_lastindex) (VInt (Z.of_nat (length l) - 1))) 0%Z l with
                | Some t => Some (t, env)
                | None => None
                end
            end
          else None
      | _ => None
      end
    else None.
Proof. reflexivity. Qed.
Lemma sout_forrange env x a1 rest body hasie ie : sout' env (SForRange x a1 rest body hasie ie)
  = if is_ident x && negb (bstr_eqb x n_ij) then
      match cints ij env (a1 :: rest) with
      | Some zs =>
          match range_args 0%Z 1%Z zs with
          | Some (a, l, st) =>
              if (0 <? st)%Z && small (l - a) then
                let items := range_items (Z.to_nat (Z.max 0 (l - a))) a l st in
                match items with
                | [] => if hasie then match bout' env ie with Some t => Some (t, env) | None => None end else Some ([], env)
                | _ :: _ =>
                    match for_out (fun en => bout' en body) x (env_set env (x ++ c_lastindex) (VInt (Z.of_nat (length items) - 1))) 0%Z items with
                    | Some t => Some (t, env)
                    | None => None
                    end
                end
              else None
          | None => None
          end
      | None => None
      end
    else None.
Proof. reflexivity. Qed.
Lemma sout_css env e sfx : sout' env (SCss e sfx)
  = match e with
    | None => Some (sfx, env)
    | Some x => match ceval ij env x with
                | Some v => match scalar_string v with Some str => Some ((str ++ [45]) ++ sfx, env) | None => None end
                | None => None
                end
    end.
Proof. reflexivity. Qed.
Lemma sout_call env name d ps : sout' env (SCall name d ps)
  = match cdata_env ij dv env d with
    | Some base => match pout' env ps base with
                   | Some cenv => match cl name cenv with Some t => Some (t, env) | None => None end
                   | None => None
                   end
    | None => None
    end.
Proof. reflexivity. Qed.
Lemma sout_msg env body : sout' env (SMsg body)
  = if msg_ok body then match bout' env body with Some t => Some (t, env) | None => None end else None.
Proof. reflexivity. Qed.
Lemma sout_msgpl env pn v q : sout' env (SMsgPl pn v q)
  = match ceval ij env v with
    | Some (VInt i) => match qout' env i q with Some t => Some (t, env) | None => None end
    | _ => None
    end.
Proof. reflexivity. Qed.
Lemma qout_dflt env i b : qout' env i (QDflt b) = if msg_ok b then bout' env b else None. Proof. reflexivity. Qed.
Lemma qout_case env i z b r : qout' env i (QCase z b r) = if (i =? z)%Z then (if msg_ok b then bout' env b else None) else qout' env i r.
Proof. reflexivity. Qed.
Lemma pout_nil env acc : pout' env PNil acc = Some acc. Proof. reflexivity. Qed.
Lemma pout_val env k e r acc : pout' env (PVal k e r) acc
  = if is_ident k then match ceval ij env e with Some v => pout' env r (env_set acc k v) | None => None end else None.
Proof. reflexivity. Qed.
Lemma pout_cont env k body r acc : pout' env (PCont k body r) acc
  = if is_ident k then match bout' env body with Some t => pout' env r (env_set acc k (VStr t)) | None => None end else None.
Proof. reflexivity. Qed.
Lemma bout_nil env : bout' env BNil = Some []. Proof. reflexivity. Qed.
Lemma bout_cons env s r : bout' env (BCons s r)
  = match sout' env s with
    | Some (a, env1) => match bout' env1 r with Some c => Some (a ++ c) | None => None end
    | None => None
    end.
Proof. reflexivity. Qed.
Lemma eout_none env : eout' env ENone = Some []. Proof. reflexivity. Qed.
Lemma eout_else env b : eout' env (EElse b) = bout' env b. Proof. reflexivity. Qed.
Lemma eout_elif env c th rest : eout' env (EElif c th rest)
  = match ceval ij env c with Some v => if truthy v then bout' env th else eout' env rest | None => None end.
Proof. reflexivity. Qed.
Lemma kout_none env sv : kout' env sv KNone = Some []. Proof. reflexivity. Qed.
Lemma kout_default env sv b : kout' env sv (KDefault b) = bout' env b. Proof. reflexivity. Qed.
Lemma kout_case env sv v vs b rest : kout' env sv (KCase v vs b rest)
  = match khit ij env sv (v :: vs) with Some true => bout' env b | Some false => kout' env sv rest | None => None end.
Proof. reflexivity. Qed.

(* what a loop over the list l writes: the {ifempty} block if there is one, else the rounds with $x.lastIndex bound *)
Definition for_text (x : bstr) (body : cblk) (hasie : bool) (ie : cblk) (env : bstr -> option value) (l : list value) (text : bstr) : Prop :=
  match l with
  | [] => if hasie then bout' env ie = Some text else text = []
  | _ :: _ => for_out (fun en => bout' en body) x (env_set env (x ++ c_lastindex) (VInt (Z.of_nat (length l) - 1))) 0%Z l = Some text
  end.
Lemma sout_for_inv env x e body hasie ie text env' : sout' env (SFor x e body hasie ie) = Some (text, env') ->
  exists lid l, is_ident x = true /\ ceval ij env e = Some (VList lid l) /\ small (Z.of_nat (length l)) = true
    /\ env' = env /\ for_text x body hasie ie env l text.
Proof.
  rewrite sout_for. intro E. apply some_if in E as [Hx E]. apply andb_prop in Hx as [Hx _].
  apply some_bind in E as (v & Ev & E). destruct v as [| | | | | |lid l|]; try discriminate.
  apply some_if in E as [Hsm E]. exists lid, l. unfold for_text. destruct l as [|v0 r0].
  - destruct hasie; [apply some_with in E as [Et ->]|inversion E; subst]; auto 6.
  - apply some_with in E as [Et ->]. auto 6.
Qed.
Lemma sout_forrange_inv env x a1 rest body hasie ie text env' : sout' env (SForRange x a1 rest body hasie ie) = Some (text, env') ->
  exists zs a l st, is_ident x = true /\ cints ij env (a1 :: rest) = Some zs /\ range_args 0%Z 1%Z zs = Some (a, l, st)
    /\ (0 < st)%Z /\ small (l - a) = true
    /\ env' = env /\ for_text x body hasie ie env (range_items (Z.to_nat (Z.max 0 (l - a))) a l st) text.
Proof.
  rewrite sout_forrange. intro E. apply some_if in E as [Hx E]. apply andb_prop in Hx as [Hx _].
  apply some_bind in E as (zs & Hc & E). apply some_bind in E as ([[a l] st] & Hr & E).
  apply some_if in E as [Hg E]. apply andb_prop in Hg as [Hst Hsd]. apply Z.ltb_lt in Hst. cbn zeta in E.
  exists zs, a, l, st. unfold for_text. destruct (range_items (Z.to_nat (Z.max 0 (l - a))) a l st) as [|v0 r0].
  - destruct hasie; [apply some_with in E as [Et ->]|inversion E; subst]; auto 10.
  - apply some_with in E as [Et ->]. auto 10.
Qed.

(* the environment after a statement: only a let binds *)
Lemma sout_env env s text env' : sout' env s = Some (text, env') ->
  match s with
  | SLet name e => exists v, ceval ij env e = Some v /\ env' = env_set env name v
  | SLetC name _ => exists t, env' = env_set env name (VStr t)
  | _ => env' = env
  end.
Proof.
  destruct s; intro E.
  - rewrite sout_raw in E. inversion E; reflexivity.
  - rewrite sout_print in E. apply some_bind in E as (? & _ & E). apply some_bind in E as (? & _ & E). apply some_if in E as [_ E]. inversion E; reflexivity.
  - rewrite sout_let in E. apply some_ifn in E as [_ E]. apply some_if in E as [_ E]. apply some_bind in E as (? & Ev & E). inversion E; eauto.
  - rewrite sout_letc in E. apply some_ifn in E as [_ E]. apply some_if in E as [_ E]. apply some_bind in E as (? & _ & E). inversion E; eauto.
  - rewrite sout_if in E. apply some_bind in E as (? & _ & E). apply some_with in E as [_ ->]. reflexivity.
  - rewrite sout_switch in E. apply some_bind in E as (? & _ & E). apply some_if in E as [_ E]. apply some_with in E as [_ ->]. reflexivity.
  - apply sout_for_inv in E as (? & ? & _ & _ & _ & -> & _). reflexivity.
  - apply sout_forrange_inv in E as (? & ? & ? & ? & _ & _ & _ & _ & _ & -> & _). reflexivity.
  - rewrite sout_css in E. destruct e as [x|]; [apply some_bind in E as (? & _ & E); apply some_bind in E as (? & _ & E)|]; inversion E; reflexivity.
  - rewrite sout_call in E. apply some_bind in E as (? & _ & E). apply some_bind in E as (? & _ & E). apply some_with in E as [_ ->]. reflexivity.
  - rewrite sout_msg in E. apply some_if in E as [_ E]. apply some_with in E as [_ ->]. reflexivity.
  - rewrite sout_msgpl in E. apply some_bind in E as (x & _ & E). destruct x; try discriminate. apply some_with in E as [_ ->]. reflexivity.
Qed.

Notation sgen' := (sgen mode buf). Notation bgen' := (bgen mode buf). Notation egen' := (egen mode buf). Notation kgen' := (kgen mode buf).
Lemma sgen_raw sc n t : sgen' sc n (SRaw t) = (JSAppendLit buf t, (sc, n)). Proof. reflexivity. Qed.
Lemma sgen_print_eq sc n e ds : sgen' sc n (SPrint e ds) = (JSAppend buf (cgen_print_expr mode ds (cgen sc e)), (sc, n)). Proof. reflexivity. Qed.
Lemma sgen_let sc n name e : sgen' sc n (SLet name e)
  = (JSVar (jsc_name name (n + 1)) (cgen sc e), (jsc_bind_pure sc name (jsc_name name (n + 1)), n + 1)).
Proof. reflexivity. Qed.
Lemma sgen_letc sc n name body : sgen' sc n (SLetC name body)
  = let '(jb, n1) := bgen mode (jsc_name name (n + 1)) ([] :: sc) (n + 1) body in
    (JSVarBlock (jsc_name name (n + 1)) jb, (jsc_bind_pure sc name (jsc_name name (n + 1)), n1)).
Proof. reflexivity. Qed.
Lemma sgen_if sc n c th rest : sgen' sc n (SIf c th rest)
  = let '(jt, n1) := bgen' ([] :: sc) n th in let '(jr, n2) := egen' sc n1 rest in (JSIf (cgen sc c) jt jr, (sc, n2)).
Proof. reflexivity. Qed.
Lemma sgen_switch sc n v cs : sgen' sc n (SSwitch v cs) = let '(jc, n1) := kgen' sc n cs in (JSSwitch (cgen sc v) jc, (sc, n1)).
Proof. reflexivity. Qed.
Lemma sgen_for sc n x e body hasie ie : sgen' sc n (SFor x e body hasie ie)
  = let '(jb, n1) := bgen' ([] :: loop_frame x (n + 1) :: sc) (n + 1) body in
    let '(ji, n2) := if hasie then bgen' ([] :: sc) n1 ie else (JBNil, n1) in
    (JSForeach (jsc_name x (n + 1)) (jsc_name (x ++ t_list) (n + 1)) (jsc_name (x ++ t_limit) (n + 1)) (jsc_name (x ++ t_index) (n + 1))
               (cgen sc e) jb hasie ji, (sc, n2)).
Proof. reflexivity. Qed.
Lemma sgen_forrange sc n x a1 rest body hasie ie : sgen' sc n (SForRange x a1 rest body hasie ie)
  = let '(jb, n1) := bgen' ([] :: loop_frame x (n + 1) :: sc) (n + 1) body in
    let '(ji, n2) := if hasie then bgen' ([] :: sc) n1 ie else (JBNil, n1) in
    let '(ei, el, es) := match range_args (JENum 0) (JENum 1) (map (cgen sc) (a1 :: rest)) with
                         | Some t => t
                         | None => (JENull, JENull, JENull)
                         end in
    (JSForRange (jsc_name x (n + 1)) (jsc_name (x ++ t_init) (n + 1)) (jsc_name (x ++ t_step) (n + 1)) (jsc_name (x ++ t_limit) (n + 1))
                (jsc_name (x ++ t_index) (n + 1)) ei es el jb hasie ji, (sc, n2)).
Proof. reflexivity. Qed.
Lemma sgen_css sc n e sfx : sgen' sc n (SCss e sfx) = (JSCss buf (match e with Some x => Some (cgen sc x) | None => None end) sfx, (sc, n)).
Proof. reflexivity. Qed.
Lemma sgen_call sc n name d ps : sgen' sc n (SCall name d ps) = let '(jps, n1) := pgen mode sc n ps in (JSCall buf name (dgen sc d) jps, (sc, n1)).
Proof. reflexivity. Qed.
Lemma sgen_msg sc n body : sgen' sc n (SMsg body) = let '(jb, n1) := bgen' sc n body in (JSSeq jb, (sc, n1)).
Proof. reflexivity. Qed.
Lemma sgen_msgpl sc n pn v q : sgen' sc n (SMsgPl pn v q) = let '(jk, n1) := qgen mode buf sc n q in (JSPlural (cgen sc v) jk, (sc, n1)).
Proof. reflexivity. Qed.
Lemma qgen_dflt sc n b : qgen mode buf sc n (QDflt b) = let '(jb, n1) := bgen' sc n b in (JKDefault jb, n1). Proof. reflexivity. Qed.
Lemma qgen_case sc n z b r : qgen mode buf sc n (QCase z b r)
  = let '(jb, n1) := bgen' sc n b in let '(jr, n2) := qgen mode buf sc n1 r in (JKCase (JENum z) [] jb jr, n2).
Proof. reflexivity. Qed.
Lemma pgen_nil sc n : pgen mode sc n PNil = (JPNil, n). Proof. reflexivity. Qed.
Lemma pgen_val sc n k e r : pgen mode sc n (PVal k e r) = let '(jr, n1) := pgen mode sc n r in (JPVal k (cgen sc e) jr, n1). Proof. reflexivity. Qed.
Lemma pgen_cont sc n k body r : pgen mode sc n (PCont k body r)
  = let '(jb, n1) := bgen mode (jsc_name t_param (n + 1)) ([] :: sc) (n + 1) body in
    let '(jr, n2) := pgen mode sc n1 r in (JPCont k (jsc_name t_param (n + 1)) jb jr, n2).
Proof. reflexivity. Qed.
Lemma bgen_nil sc n : bgen' sc n BNil = (JBNil, n). Proof. reflexivity. Qed.
Lemma bgen_cons sc n s r : bgen' sc n (BCons s r)
  = let '(j, (sc1, n1)) := sgen' sc n s in let '(jr, n2) := bgen' sc1 n1 r in (JBCons j jr, n2).
Proof. reflexivity. Qed.
Lemma egen_none sc n : egen' sc n ENone = (JLNone, n). Proof. reflexivity. Qed.
Lemma egen_else sc n b : egen' sc n (EElse b) = let '(jb, n1) := bgen' ([] :: sc) n b in (JLElse jb, n1). Proof. reflexivity. Qed.
Lemma egen_elif sc n c th rest : egen' sc n (EElif c th rest)
  = let '(jt, n1) := bgen' ([] :: sc) n th in let '(jr, n2) := egen' sc n1 rest in (JLElif (cgen sc c) jt jr, n2).
Proof. reflexivity. Qed.
Lemma kgen_none sc n : kgen' sc n KNone = (JKNone, n). Proof. reflexivity. Qed.
Lemma kgen_default sc n b : kgen' sc n (KDefault b) = let '(jb, n1) := bgen' ([] :: sc) n b in (JKDefault jb, n1). Proof. reflexivity. Qed.
Lemma kgen_case sc n v vs b rest : kgen' sc n (KCase v vs b rest)
  = let '(jb, n1) := bgen' ([] :: sc) n b in let '(jr, n2) := kgen' sc n1 rest in (JKCase (cgen sc v) (map (cgen sc) vs) jb jr, n2).
Proof. reflexivity. Qed.
End Eqs.

Section ExecEqs.
Variable jfn : bstr -> jval -> jval -> outcome bstr.
Notation js_exec := (js_exec jfn). Notation jb_exec := (jb_exec jfn). Notation jl_exec := (jl_exec jfn). Notation jk_exec := (jk_exec jfn).
Lemma js_exec_var env g e : js_exec env (JSVar g e) = (v <- js_eval env e ;; Ok {| je_vars := aset (je_vars env) g v; je_data := je_data env |}).
Proof. reflexivity. Qed.
Lemma js_exec_varblock env g body : js_exec env (JSVarBlock g body) = jb_exec {| je_vars := aset (je_vars env) g (JStr []); je_data := je_data env |} body.
Proof. reflexivity. Qed.
Lemma js_exec_if env c th rest : js_exec env (JSIf c th rest) = (v <- js_eval env c ;; if js_truthy v then jb_exec env th else jl_exec env rest).
Proof. reflexivity. Qed.
Lemma js_exec_switch env v cs : js_exec env (JSSwitch v cs) = (sv <- js_eval env v ;; jk_exec env sv cs).
Proof. reflexivity. Qed.
Lemma js_exec_foreach env vd vlist vlen vidx e body hasie ie : js_exec env (JSForeach vd vlist vlen vidx e body hasie ie)
  = (v <- js_eval env e ;;
     match v with
     | JArr l =>
         let c := Z.of_nat (length l) in
         let env2 := jvset (jvset env vlist v) vlen (JNum c) in
         if hasie && (c <=? 0)%Z then jb_exec env2 ie
         else js_for (fun en => jb_exec en body) (js_item_elem vlist) vd vlen vidx (length l) (jvset env2 vidx (JNum 0))
     | JUndef | JNull => Err je_type
     | _ => OutOfModel
     end).
Proof. reflexivity. Qed.
Lemma js_exec_forrange env vd vinit vstep vlen vidx ei es el body hasie ie : js_exec env (JSForRange vd vinit vstep vlen vidx ei es el body hasie ie)
  = (vi <- js_eval env ei ;;
     let env1 := jvset env vinit vi in
     vs <- js_eval env1 es ;;
     let env2 := jvset env1 vstep vs in
     vl <- js_eval env2 el ;;
     match vl, jvget env2 vinit, jvget env2 vstep with
     | JNum l, Some (JNum a), Some (JNum s) =>
         cv <- js_range_count l a s ;;
         match cv with
         | JNum c =>
             let env3 := jvset env2 vlen cv in
             if hasie && (c <=? 0)%Z then jb_exec env3 ie
             else js_for (fun en => jb_exec en body) (js_item_lin vinit vstep) vd vlen vidx (Z.to_nat c) (jvset env3 vidx (JNum 0))
         | _ => OutOfModel
         end
     | _, _, _ => OutOfModel
     end).
Proof. reflexivity. Qed.
Lemma js_exec_css env buf e sfx : js_exec env (JSCss buf e sfx)
  = (env1 <- match e with
             | Some x => v <- js_eval env x ;; match js_tostring v with Some s => js_append_text env buf (s ++ [45]) | None => OutOfModel end
             | None => Ok env
             end ;;
     js_append_text env1 buf sfx).
Proof. reflexivity. Qed.
Lemma jb_exec_cons env s r : jb_exec env (JBCons s r) = (env' <- js_exec env s ;; jb_exec env' r). Proof. reflexivity. Qed.
Lemma jl_exec_elif env c th rest : jl_exec env (JLElif c th rest) = (v <- js_eval env c ;; if js_truthy v then jb_exec env th else jl_exec env rest).
Proof. reflexivity. Qed.
Lemma jk_exec_case env sv v vs b rest : jk_exec env sv (JKCase v vs b rest) = (h <- jk_hit env sv (v :: vs) ;; if h then jb_exec env b else jk_exec env sv rest).
Proof. reflexivity. Qed.
Lemma js_exec_call env buf name d ps : js_exec env (JSCall buf name d ps)
  = (env1 <- jp_exec jfn env ps ;; dv <- js_call_data env1 d (jp_args ps) ;; r <- jfn name dv (js_ij_arg env1) ;; js_append_text env1 buf r).
Proof. reflexivity. Qed.
Lemma js_exec_seq env b : js_exec env (JSSeq b) = jb_exec env b. Proof. reflexivity. Qed.
Lemma js_exec_plural env v cs : js_exec env (JSPlural v cs) = (sv <- js_eval env v ;; jk_exec env sv cs).
Proof. reflexivity. Qed.
Lemma jp_exec_cont env k g body r : jp_exec jfn env (JPCont k g body r) = (env1 <- jb_exec (jvset env g (JStr [])) body ;; jp_exec jfn env1 r).
Proof. reflexivity. Qed.
End ExecEqs.

Lemma ceval_ext ij env1 env2 : (forall k, env1 k = env2 k) -> forall e, ceval ij env1 e = ceval ij env2 e.
Proof.
  intros H. induction e as [| x | z | s | key accs | a IHa | a IHa | op a IHa c IHc | c IHc a IHa d IHd | k x]; cbn [ceval]; try reflexivity.
  - rewrite H. reflexivity.
  - rewrite IHa. reflexivity.
  - rewrite IHa. reflexivity.
  - rewrite IHa, IHc. reflexivity.
  - rewrite IHc, IHa, IHd. reflexivity.
  - rewrite !H. reflexivity.
Qed.

(* ---- the arguments of range(): one to three, read as (init, limit, step) ---- *)
Lemma range_args_map {A B} (f : A -> B) zero one args :
  range_args (f zero) (f one) (map f args) = match range_args zero one args with Some (i, l, s) => Some (f i, f l, f s) | None => None end.
Proof. destruct args as [|a [|c [|d [|e r]]]]; reflexivity. Qed.
Lemma range_args_all {A} (P : A -> Prop) zero one args i l s : range_args zero one args = Some (i, l, s) ->
  P zero -> P one -> (forall x, In x args -> P x) -> P i /\ P l /\ P s.
Proof. destruct args as [|a [|c [|d [|e r]]]]; intros E H0 H1 H; inversion E; subst; cbn [In] in H; auto 10. Qed.
Lemma range_args_some {A} (zero one : A) args : (1 <= length args <= 3)%nat -> exists t, range_args zero one args = Some t.
Proof. destruct args as [|a [|c [|d [|e r]]]]; cbn [length]; intro H; try lia; eexists; reflexivity. Qed.
Lemma cints_map ij env es : forall zs, cints ij env es = Some zs -> map (ceval ij env) es = map (fun z => Some (VInt z)) zs.
Proof.
  induction es as [|e r IH]; intros zs E; cbn [cints] in E; [inversion E; reflexivity|].
  destruct (ceval ij env e) as [[| | |z| | | |]|] eqn:Ee; try discriminate. destruct (cints ij env r) as [zr|]; [|discriminate].
  inversion E. cbn [map]. rewrite Ee, (IH zr eq_refl). reflexivity.
Qed.
(* the same three among the argument expressions (with the literals 0 and 1 for those left out) have these values *)
Lemma cints_range ij env args zs a l st : cints ij env args = Some zs -> range_args 0%Z 1%Z zs = Some (a, l, st) ->
  exists ci cl cs, range_args (CInt 0) (CInt 1) args = Some (ci, cl, cs)
    /\ ceval ij env ci = Some (VInt a) /\ ceval ij env cl = Some (VInt l) /\ ceval ij env cs = Some (VInt st).
Proof.
  intros Hc Hr. pose proof (range_args_map (ceval ij env) (CInt 0) (CInt 1) args) as H. rewrite (cints_map _ _ _ _ Hc) in H.
  change (ceval ij env (CInt 0)) with ((fun z => Some (VInt z)) 0%Z) in H. change (ceval ij env (CInt 1)) with ((fun z => Some (VInt z)) 1%Z) in H.
  rewrite range_args_map, Hr in H. destruct (range_args (CInt 0) (CInt 1) args) as [[[ci cl] cs]|]; [|discriminate]. inversion H. eauto 10.
Qed.

Lemma scalar_string_ok v s : scalar_string v = Some s -> printable_scalar v = true /\ value_string v = Ok s /\ js_tostring (to_js v) = Some s.
Proof. destruct v; try discriminate; intro H; try destruct x; inversion H; subst; repeat split; reflexivity. Qed.
Lemma cleanb_ok s : cleanb s = true -> clean s.
Proof.
  unfold cleanb, clean. intro H. apply Forall_forall. intros c Hc. pose proof (proj1 (forallb_forall _ _) H c Hc) as Hb.
  apply andb_prop in Hb as [H1 H2]. apply negb_true_iff in H1, H2. split; apply N.eqb_neq; assumption.
Qed.

Lemma assoc_s_aset_other {A} k k' (v : A) l : bstr_eqb k k' = false -> assoc_s k (aset l k' v) = assoc_s k l.
Proof.
  intro Hk. induction l as [|[k2 x] l IH]; cbn [aset]; unfold assoc_s; fold (@assoc_s A).
  - rewrite Hk. reflexivity.
  - destruct (bstr_eqb k' k2) eqn:E2; unfold assoc_s; fold (@assoc_s A).
    + apply bstr_eqb_true in E2. subst k2. rewrite Hk. reflexivity.
    + destruct (bstr_eqb k k2); [reflexivity|exact IH].
Qed.

(* ---- generated names are fresh: the counter is the decimal after the last underscore ---- *)
Lemma jsc_name_sfx v n : jsc_name v n = sfx_name v n.
Proof. reflexivity. Qed.
Lemma jsc_name_inj v m v' m' : jsc_name v m = jsc_name v' m' -> m = m'.
Proof. rewrite !jsc_name_sfx. intro H. apply sfx_name_inj in H. apply H. Qed.
Lemma jsc_name_cons v n : exists c r, jsc_name v n = c :: r.
Proof. unfold jsc_name. destruct v as [|c r]; cbn; eauto. Qed.

(* whenever g reads as a generated name, its counter is at most n *)
Definition bounded (n : N) (g : bstr) : Prop := forall v m, g = jsc_name v m -> m <= n.
Lemma bounded_mono n n' g : n <= n' -> bounded n g -> bounded n' g.
Proof. intros Hn H v m E. specialize (H v m E). lia. Qed.
Lemma bounded_nil n : bounded n [].
Proof. intros v m E. destruct (jsc_name_cons v m) as (c & r & H). congruence. Qed.
Lemma bounded_new v n : bounded n (jsc_name v n).
Proof. intros v' m E. apply jsc_name_inj in E. lia. Qed.
Lemma bounded_fresh n g v : bounded n g -> bstr_eqb g (jsc_name v (n + 1)) = false.
Proof. intro H. apply bstr_eqb_neq. intro E. specialize (H v (n + 1) E). lia. Qed.
Lemma opt_ij_bounded n : bounded n t_opt_ij.
Proof.
  intros v m E. exfalso. rewrite jsc_name_sfx in E. unfold sfx_name in E.
  change t_opt_ij with ([111; 112; 116] ++ 95 :: [105; 106; 68; 97; 116; 97]) in E.
  apply split_at_last in E.
  - destruct E as [_ E]. pose proof (dec_of_N_digits m) as Hd. rewrite <- E in Hd. inversion Hd as [|? ? H1 _]. unfold is_digit_byte in H1. lia.
  - cbn. intros [H|[H|[H|[H|[H|[H|[]]]]]]]; discriminate.
  - apply dec_no_us.
Qed.

(* ---- identifiers, the renderer's hidden loop variables, the generator's loop frames ---- *)
Lemma is_ident_app a c : is_ident (a ++ c) = is_ident a && is_ident c.
Proof. unfold is_ident. rewrite existsb_app, negb_orb. reflexivity. Qed.
Lemma ident_neq_dotted name y sfx : is_ident name = true -> is_ident sfx = false -> bstr_eqb name (y ++ sfx) = false.
Proof.
  intros Hn Hs. apply bstr_eqb_neq. intro E. rewrite E, is_ident_app, Hs, andb_false_r in Hn. discriminate.
Qed.
Lemma ident_neq_index name y : is_ident name = true -> bstr_eqb name (y ++ jk_index) = false.
Proof. intro H. apply ident_neq_dotted; [exact H|reflexivity]. Qed.
Lemma ident_neq_lastindex name y : is_ident name = true -> bstr_eqb name (y ++ c_lastindex) = false.
Proof. intro H. apply ident_neq_dotted; [exact H|reflexivity]. Qed.
Lemma ident_neq_jk name k : is_ident name = true -> is_ident k = false -> bstr_eqb name k = false.
Proof. intros Hn Hk. apply (ident_neq_dotted name [] k Hn Hk). Qed.
Lemma index_neq_lastindex y x : bstr_eqb (y ++ jk_index) (x ++ c_lastindex) = false.
Proof.
  apply bstr_eqb_neq. intro H. apply (f_equal (@rev N)) in H. rewrite !rev_app_distr in H.
  cbn [rev jk_index c_lastindex app] in H. inversion H.
Qed.
Lemma app_same_tail_eqb y x sfx : bstr_eqb (y ++ sfx) (x ++ sfx) = bstr_eqb y x.
Proof.
  destruct (bstr_eqb y x) eqn:E.
  - apply bstr_eqb_true in E. subst. apply bstr_eqb_refl.
  - apply bstr_eqb_neq. intro H. apply app_inv_tail in H. subst. rewrite bstr_eqb_refl in E. discriminate.
Qed.

Lemma jsc_name_neq a c n : a <> c -> bstr_eqb (jsc_name a n) (jsc_name c n) = false.
Proof. intro H. apply bstr_eqb_neq. intro E. rewrite !jsc_name_sfx in E. apply sfx_name_inj in E. destruct E; contradiction. Qed.
Lemma app_neq_self (x sfx : bstr) : sfx <> [] -> x <> x ++ sfx.
Proof. intros Hs E. rewrite <- (app_nil_r x) in E at 1. apply app_inv_head in E. congruence. Qed.
Lemma app_neq_tails (x a c : bstr) : a <> c -> x ++ a <> x ++ c.
Proof. intros H E. apply app_inv_head in E. contradiction. Qed.

Lemma loop_frame_eq x n : is_ident x = true ->
  loop_frame x n = [(x, jsc_name x n); (jk_var, x); (jk_limit, jsc_name (x ++ t_limit) n); (jk_index, jsc_name (x ++ t_index) n)].
Proof.
  intro Hx. unfold loop_frame. cbn [aset].
  rewrite (bstr_eqb_sym jk_var x), (ident_neq_jk x jk_var Hx eq_refl). cbn [aset].
  rewrite (bstr_eqb_sym jk_limit x), (ident_neq_jk x jk_limit Hx eq_refl).
  replace (bstr_eqb jk_limit jk_var) with false by reflexivity. cbn [aset].
  rewrite (bstr_eqb_sym jk_index x), (ident_neq_jk x jk_index Hx eq_refl).
  replace (bstr_eqb jk_index jk_var) with false by reflexivity. replace (bstr_eqb jk_index jk_limit) with false by reflexivity. reflexivity.
Qed.

Lemma jsc_loop_push sc x : jsc_loop ([] :: sc) x = jsc_loop sc x.
Proof. cbn [jsc_loop]. unfold assoc_s. cbn. rewrite andb_false_r. reflexivity. Qed.
Lemma jsc_loop_bind sc name g x : is_ident name = true -> jsc_loop (jsc_bind_pure sc name g) x = jsc_loop sc x.
Proof.
  intro Hn. destruct sc as [|f r]; [reflexivity|]. cbn [jsc_bind_pure jsc_loop].
  rewrite !assoc_s_aset_other by (rewrite bstr_eqb_sym; apply ident_neq_jk; [exact Hn|reflexivity]). reflexivity.
Qed.
Lemma jsc_loop_frame sc x n y : is_ident x = true ->
  jsc_loop (loop_frame x n :: sc) y = if bstr_eqb x y then (jsc_name (x ++ t_index) n, jsc_name (x ++ t_limit) n) else jsc_loop sc y.
Proof.
  intro Hx. rewrite loop_frame_eq by exact Hx. cbn [jsc_loop]. unfold assoc_s.
  rewrite (bstr_eqb_sym jk_var x), (ident_neq_jk x jk_var Hx eq_refl).
  rewrite (bstr_eqb_sym jk_index x), (ident_neq_jk x jk_index Hx eq_refl).
  rewrite (bstr_eqb_sym jk_limit x), (ident_neq_jk x jk_limit Hx eq_refl).
  replace (bstr_eqb jk_var jk_var) with true by reflexivity.
  replace (bstr_eqb jk_index jk_var) with false by reflexivity. replace (bstr_eqb jk_index jk_limit) with false by reflexivity.
  replace (bstr_eqb jk_index jk_index) with true by reflexivity.
  replace (bstr_eqb jk_limit jk_var) with false by reflexivity. replace (bstr_eqb jk_limit jk_limit) with true by reflexivity.
  destruct (jsc_name_cons (x ++ t_index) n) as (c0 & r0 & Hc). rewrite Hc. cbn [negb]. rewrite andb_true_r. reflexivity.
Qed.
Lemma jsc_lookup_frame sc x n key : is_ident x = true ->
  jsc_lookup (loop_frame x n :: sc) key
  = if bstr_eqb key x then jsc_name x n else if bstr_eqb key jk_var then x
    else if bstr_eqb key jk_limit then jsc_name (x ++ t_limit) n else if bstr_eqb key jk_index then jsc_name (x ++ t_index) n
    else jsc_lookup sc key.
Proof.
  intro Hx. rewrite loop_frame_eq by exact Hx. cbn [jsc_lookup]. unfold assoc_s.
  destruct (bstr_eqb key x); [reflexivity|]. destruct (bstr_eqb key jk_var); [reflexivity|].
  destruct (bstr_eqb key jk_limit); [reflexivity|]. destruct (bstr_eqb key jk_index); reflexivity.
Qed.

(* what the generator's scope, counter and buffer variable satisfy *)
(* (the entry .var of a loop frame holds a Soy name, not a generated one: it is exempt) *)
Record ginv (sc : list (list (bstr * bstr))) (n : N) (buf : bstr) : Prop := {
  gi_nonempty : sc <> [];
  gi_scope : forall key, bstr_eqb key jk_var = false -> bounded n (jsc_lookup sc key);
  gi_buf : bounded n buf;
  gi_buf_fresh : forall key, bstr_eqb key jk_var = false -> bstr_eqb (jsc_lookup sc key) buf = false;
  gi_buf_ij : bstr_eqb t_opt_ij buf = false;
  gi_loop : forall x, bounded n (fst (jsc_loop sc x)) /\ bounded n (snd (jsc_loop sc x))
                      /\ bstr_eqb (fst (jsc_loop sc x)) buf = false /\ bstr_eqb (snd (jsc_loop sc x)) buf = false;
}.
Lemma ginv_mono sc n n' buf : n <= n' -> ginv sc n buf -> ginv sc n' buf.
Proof.
  intros Hn [H0 H1 H2 H3 H4 H5]. constructor; auto.
  - intros k Hk. eapply bounded_mono; eauto.
  - eapply bounded_mono; eauto.
  - intro x. destruct (H5 x) as (A & B & C & D). repeat split; auto; eapply bounded_mono; eauto.
Qed.
Lemma ginv_push sc n buf : ginv sc n buf -> ginv ([] :: sc) n buf.
Proof. intros [H0 H1 H2 H3 H4 H5]. constructor; auto. discriminate. intro x. rewrite jsc_loop_push. apply H5. Qed.
(* a new variable v_<n+1> as the buffer *)
Lemma ginv_newbuf sc n buf y : ginv sc n buf -> ginv sc (n + 1) (jsc_name y (n + 1)).
Proof.
  intros [G0 G1 G2 G3 G4 G5]. constructor.
  - exact G0.
  - intros key Hk. eapply bounded_mono; [|apply G1; exact Hk]. lia.
  - apply bounded_new.
  - intros key Hk. apply bounded_fresh. apply G1; exact Hk.
  - apply bounded_fresh. apply opt_ij_bounded.
  - intro x. destruct (G5 x) as (A & B & _ & _). repeat split; try (eapply bounded_mono; [|eassumption]; lia); apply bounded_fresh; assumption.
Qed.

Lemma jsc_lookup_bind_same sc name g : sc <> [] -> jsc_lookup (jsc_bind_pure sc name g) name = g.
Proof.
  destruct sc as [|f r]; [congruence|]. intros _. cbn [jsc_bind_pure jsc_lookup tl]. rewrite assoc_s_aset. reflexivity.
Qed.
Lemma jsc_lookup_bind_other sc name g key : bstr_eqb key name = false -> jsc_lookup (jsc_bind_pure sc name g) key = jsc_lookup sc key.
Proof.
  destruct sc as [|f r]; [reflexivity|]. intro H. cbn [jsc_bind_pure jsc_lookup]. rewrite assoc_s_aset_other by exact H. reflexivity.
Qed.

Lemma ginv_bind sc n buf name : is_ident name = true -> ginv sc n buf -> ginv (jsc_bind_pure sc name (jsc_name name (n + 1))) (n + 1) buf.
Proof.
  intros Hid [H0 H1 H2 H3 H4 H5].
  assert (Hl : forall key, jsc_lookup (jsc_bind_pure sc name (jsc_name name (n + 1))) key
                           = if bstr_eqb key name then jsc_name name (n + 1) else jsc_lookup sc key).
  { intro key. destruct (bstr_eqb key name) eqn:E.
    - apply bstr_eqb_true in E. subst key. rewrite jsc_lookup_bind_same by exact H0. reflexivity.
    - apply jsc_lookup_bind_other. exact E. }
  constructor.
  - destruct sc; [congruence|discriminate].
  - intros key Hk. rewrite Hl. destruct (bstr_eqb key name); [apply bounded_new|]. eapply bounded_mono; [|apply H1; exact Hk]. lia.
  - eapply bounded_mono; [|exact H2]. lia.
  - intros key Hk. rewrite Hl. destruct (bstr_eqb key name); [|apply H3; exact Hk]. rewrite bstr_eqb_sym. apply bounded_fresh. exact H2.
  - exact H4.
  - intro x. rewrite jsc_loop_bind by exact Hid. destruct (H5 x) as (A & B & C & D). repeat split; auto; eapply bounded_mono; eauto; lia.
Qed.

(* the scope inside a loop over $x: its frame holds names with the next counter *)
Lemma ginv_loop sc n buf x : is_ident x = true -> ginv sc n buf -> ginv (loop_frame x (n + 1) :: sc) (n + 1) buf.
Proof.
  intros Hx [H0 H1 H2 H3 H4 H5]. constructor.
  - discriminate.
  - intros key Hk. rewrite jsc_lookup_frame by exact Hx. rewrite Hk.
    destruct (bstr_eqb key x); [apply bounded_new|]. destruct (bstr_eqb key jk_limit); [apply bounded_new|].
    destruct (bstr_eqb key jk_index); [apply bounded_new|]. eapply bounded_mono; [|apply H1; exact Hk]. lia.
  - eapply bounded_mono; [|exact H2]. lia.
  - intros key Hk. rewrite jsc_lookup_frame by exact Hx. rewrite Hk.
    destruct (bstr_eqb key x); [rewrite bstr_eqb_sym; apply bounded_fresh; exact H2|].
    destruct (bstr_eqb key jk_limit); [rewrite bstr_eqb_sym; apply bounded_fresh; exact H2|].
    destruct (bstr_eqb key jk_index); [rewrite bstr_eqb_sym; apply bounded_fresh; exact H2|]. apply H3; exact Hk.
  - exact H4.
  - intro y. rewrite jsc_loop_frame by exact Hx. destruct (bstr_eqb x y); cbn [fst snd].
    + repeat split; try apply bounded_new; rewrite bstr_eqb_sym; apply bounded_fresh; exact H2.
    + destruct (H5 y) as (A & B & C & D). repeat split; auto; eapply bounded_mono; eauto; lia.
Qed.


(* the counter never decreases *)
Lemma sgen_mono_all mode :
  (forall s buf sc n j sc' n', sgen mode buf sc n s = (j, (sc', n')) -> n <= n')
  /\ (forall b buf sc n jb n', bgen mode buf sc n b = (jb, n') -> n <= n')
  /\ (forall e buf sc n jl n', egen mode buf sc n e = (jl, n') -> n <= n')
  /\ (forall k buf sc n jk n', kgen mode buf sc n k = (jk, n') -> n <= n')
  /\ (forall ps sc n jps n', pgen mode sc n ps = (jps, n') -> n <= n')
  /\ (forall q buf sc n jk n', qgen mode buf sc n q = (jk, n') -> n <= n').
Proof.
  apply cstmt_mutind.
  - intros t buf sc n j sc' n' H. inversion H. lia.
  - intros e ds buf sc n j sc' n' H. inversion H. lia.
  - intros name e buf sc n j sc' n' H. inversion H. lia.
  - intros name body IHb buf sc n j sc' n' H. rewrite sgen_letc in H.
    destruct (bgen mode (jsc_name name (n + 1)) ([] :: sc) (n + 1) body) as [jb n1] eqn:E1. inversion H; subst.
    specialize (IHb _ _ _ _ _ E1). lia.
  - intros c th IHt rest IHr buf sc n j sc' n' H. rewrite sgen_if in H.
    destruct (bgen mode buf ([] :: sc) n th) as [jt n1] eqn:E1. destruct (egen mode buf sc n1 rest) as [jr n2] eqn:E2. inversion H; subst.
    specialize (IHt _ _ _ _ _ E1). specialize (IHr _ _ _ _ _ E2). lia.
  - intros v cs IHk buf sc n j sc' n' H. rewrite sgen_switch in H. destruct (kgen mode buf sc n cs) as [jc n1] eqn:E1. inversion H; subst. eapply IHk; eauto.
  - intros x e body IHb hasie ie IHi buf sc n j sc' n' H. rewrite sgen_for in H.
    destruct (bgen mode buf ([] :: loop_frame x (n + 1) :: sc) (n + 1) body) as [jb n1] eqn:E1. specialize (IHb _ _ _ _ _ E1).
    destruct hasie.
    + destruct (bgen mode buf ([] :: sc) n1 ie) as [ji n2] eqn:E2. specialize (IHi _ _ _ _ _ E2). inversion H; subst. lia.
    + inversion H; subst. lia.
  - intros x a1 rest body IHb hasie ie IHi buf sc n j sc' n' H. rewrite sgen_forrange in H.
    destruct (bgen mode buf ([] :: loop_frame x (n + 1) :: sc) (n + 1) body) as [jb n1] eqn:E1. specialize (IHb _ _ _ _ _ E1).
    destruct (match range_args (JENum 0) (JENum 1) (map (cgen sc) (a1 :: rest)) with Some t => t | None => (JENull, JENull, JENull) end) as [[ei el] es].
    destruct hasie.
    + destruct (bgen mode buf ([] :: sc) n1 ie) as [ji n2] eqn:E2. specialize (IHi _ _ _ _ _ E2). inversion H; subst. lia.
    + inversion H; subst. lia.
  - intros e sfx buf sc n j sc' n' H. inversion H. lia.
  - intros name d ps IHp buf sc n j sc' n' H. rewrite sgen_call in H. destruct (pgen mode sc n ps) as [jps n1] eqn:E1. inversion H; subst. eapply IHp; eauto.
  - intros body IHb buf sc n j sc' n' H. rewrite sgen_msg in H. destruct (bgen mode buf sc n body) as [jb n1] eqn:E1. inversion H; subst. eapply IHb; eauto.
  - intros pn v q IHq buf sc n j sc' n' H. rewrite sgen_msgpl in H. destruct (qgen mode buf sc n q) as [jk n1] eqn:E1. inversion H; subst. eapply IHq; eauto.
  - intros buf sc n jb n' H. inversion H. lia.
  - intros s IHs r IHr buf sc n jb n' H. rewrite bgen_cons in H.
    destruct (sgen mode buf sc n s) as [j [sc1 n1]] eqn:E1. destruct (bgen mode buf sc1 n1 r) as [jr n2] eqn:E2. inversion H; subst.
    specialize (IHs _ _ _ _ _ _ E1). specialize (IHr _ _ _ _ _ E2). lia.
  - intros buf sc n jl n' H. inversion H. lia.
  - intros b IHb buf sc n jl n' H. rewrite egen_else in H. destruct (bgen mode buf ([] :: sc) n b) as [jb n1] eqn:E1. inversion H; subst. eapply IHb; eauto.
  - intros c th IHt rest IHr buf sc n jl n' H. rewrite egen_elif in H.
    destruct (bgen mode buf ([] :: sc) n th) as [jt n1] eqn:E1. destruct (egen mode buf sc n1 rest) as [jr n2] eqn:E2. inversion H; subst.
    specialize (IHt _ _ _ _ _ E1). specialize (IHr _ _ _ _ _ E2). lia.
  - intros buf sc n jk n' H. inversion H. lia.
  - intros b IHb buf sc n jk n' H. rewrite kgen_default in H. destruct (bgen mode buf ([] :: sc) n b) as [jb n1] eqn:E1. inversion H; subst. eapply IHb; eauto.
  - intros v vs b IHb rest IHr buf sc n jk n' H. rewrite kgen_case in H.
    destruct (bgen mode buf ([] :: sc) n b) as [jb n1] eqn:E1. destruct (kgen mode buf sc n1 rest) as [jr n2] eqn:E2. inversion H; subst.
    specialize (IHb _ _ _ _ _ E1). specialize (IHr _ _ _ _ _ E2). lia.
  - intros sc n jps n' H. inversion H. lia.
  - intros k e r IHr sc n jps n' H. rewrite pgen_val in H. destruct (pgen mode sc n r) as [jr n1] eqn:E1. inversion H; subst. eapply IHr; eauto.
  - intros k body IHb r IHr sc n jps n' H. rewrite pgen_cont in H.
    destruct (bgen mode (jsc_name t_param (n + 1)) ([] :: sc) (n + 1) body) as [jb n1] eqn:E1. destruct (pgen mode sc n1 r) as [jr n2] eqn:E2. inversion H; subst.
    specialize (IHb _ _ _ _ _ E1). specialize (IHr _ _ _ _ E2). lia.
  - intros b IHb buf sc n jk n' H. rewrite qgen_dflt in H. destruct (bgen mode buf sc n b) as [jb n1] eqn:E1. inversion H; subst. eapply IHb; eauto.
  - intros z b IHb r IHr buf sc n jk n' H. rewrite qgen_case in H.
    destruct (bgen mode buf sc n b) as [jb n1] eqn:E1. destruct (qgen mode buf sc n1 r) as [jr n2] eqn:E2. inversion H; subst.
    specialize (IHb _ _ _ _ _ E1). specialize (IHr _ _ _ _ _ E2). lia.
Qed.

Lemma bgen_mono mode buf sc n b jb n' : bgen mode buf sc n b = (jb, n') -> n <= n'.
Proof. apply (sgen_mono_all mode). Qed.

(* the names a statement binds are identifiers *)
Definition binder_ok (s : cstmt) : Prop :=
  match s with SLet name _ | SLetC name _ => is_ident name = true | _ => True end.
(* the scope and the counter after a statement: only a let binds, to a variable of the next counter *)
Lemma sgen_after mode buf sc n s j sc' n' : sgen mode buf sc n s = (j, (sc', n')) ->
  sc' = sc \/ (exists name, (binder_ok s -> is_ident name = true) /\ sc' = jsc_bind_pure sc name (jsc_name name (n + 1)) /\ n + 1 <= n').
Proof.
  intro H. destruct s as [t|e ds|nm e|nm body|c th rest|v cs|x e body hasie ie|x a1 rest body hasie ie|e sfx|cname cd cps|mbody|pn pv pq]; cbn [binder_ok].
  - inversion H; auto.
  - inversion H; auto.
  - inversion H; subst. right. exists nm. split; [auto|]. split; [reflexivity|lia].
  - rewrite sgen_letc in H. destruct (bgen mode (jsc_name nm (n + 1)) ([] :: sc) (n + 1) body) as [jb n1] eqn:E1. inversion H; subst.
    right. exists nm. split; [auto|]. split; [reflexivity|exact (bgen_mono _ _ _ _ _ _ _ E1)].
  - rewrite sgen_if in H. destruct (bgen mode buf ([] :: sc) n th) as [jt n1]. destruct (egen mode buf sc n1 rest) as [jr n2]. inversion H; auto.
  - rewrite sgen_switch in H. destruct (kgen mode buf sc n cs) as [jc n1]. inversion H; auto.
  - rewrite sgen_for in H. destruct (bgen mode buf ([] :: loop_frame x (n + 1) :: sc) (n + 1) body) as [jb n1].
    destruct (if hasie then bgen mode buf ([] :: sc) n1 ie else (JBNil, n1)) as [ji n2]. inversion H; auto.
  - rewrite sgen_forrange in H. destruct (bgen mode buf ([] :: loop_frame x (n + 1) :: sc) (n + 1) body) as [jb n1].
    destruct (if hasie then bgen mode buf ([] :: sc) n1 ie else (JBNil, n1)) as [ji n2].
    destruct (match range_args (JENum 0) (JENum 1) (map (cgen sc) (a1 :: rest)) with Some t => t | None => (JENull, JENull, JENull) end) as [[ei el] es].
    inversion H; auto.
  - inversion H; auto.
  - rewrite sgen_call in H. destruct (pgen mode sc n cps) as [jps n1]. inversion H; auto.
  - rewrite sgen_msg in H. destruct (bgen mode buf sc n mbody) as [jb n1]. inversion H; auto.
  - rewrite sgen_msgpl in H. destruct (qgen mode buf sc n pq) as [jk n1]. inversion H; auto.
Qed.
Lemma swf_binder lv s : swf lv s = true -> binder_ok s.
Proof. destruct s; cbn [swf binder_ok]; auto; intro H; apply andb_prop in H; apply H. Qed.

Lemma ginv_after mode buf sc n s j sc' n' : binder_ok s -> sgen mode buf sc n s = (j, (sc', n')) -> ginv sc n buf -> ginv sc' n' buf.
Proof.
  intros Hb H G. destruct (sgen_after _ _ _ _ _ _ _ _ H) as [->|(name & Hid & -> & Hn')].
  - exact (ginv_mono _ _ _ _ (proj1 (sgen_mono_all mode) _ _ _ _ _ _ _ H) G).
  - exact (ginv_mono _ _ _ _ Hn' (ginv_bind _ _ _ _ (Hid Hb) G)).
Qed.

Lemma strict_eq_prim sv cv : prim_value sv = true -> prim_value cv = true ->
  js_strict_eq (to_js sv) (to_js cv) = Some (equals sv cv).
Proof. destruct sv, cv; try discriminate; intros _ _; reflexivity. Qed.

(* the data of a template and the object the JavaScript function gets: reading a key gives the value *)
Definition datarel (dv : bstr -> option value) (jd : jval) : Prop :=
  (forall key, js_member jd key = Ok (to_js (match dv key with Some v => v | None => VUndef end)))
  /\ (forall key v, dv key = Some v -> core_value v = true)
  /\ (forall key, is_ident key = false -> dv key = None).

Lemma core_assoc key (m : list (bstr * value)) v : forallb (fun kv => core_value (snd kv)) m = true -> assoc_s key m = Some v -> core_value v = true.
Proof.
  induction m as [|[k x] r IH]; intros Hc H; [discriminate|]. cbn [forallb snd] in Hc. apply andb_prop in Hc as [H1 H2].
  unfold assoc_s in H; fold (@assoc_s value) in H. destruct (bstr_eqb key k); [inversion H; subst; exact H1|exact (IH H2 H)].
Qed.
Lemma datarel_empty : datarel (fun _ => None) (JObj []).
Proof. split; [intro key; reflexivity|]. split; [intros key v H; discriminate|reflexivity]. Qed.
Lemma ident_keys key (m : list (bstr * value)) : forallb (fun kv => is_ident (fst kv)) m = true -> is_ident key = false -> assoc_s key m = None.
Proof.
  induction m as [|[k x] r IH]; intros Hk Hn; [reflexivity|]. cbn [forallb fst] in Hk. apply andb_prop in Hk as [H1 H2].
  unfold assoc_s; fold (@assoc_s value). destruct (bstr_eqb key k) eqn:E; [|exact (IH H2 Hn)]. apply bstr_eqb_true in E. congruence.
Qed.
Lemma datarel_map lid m : core_value (VMap lid m) = true -> forallb (fun kv => is_ident (fst kv)) m = true ->
  datarel (fun k => assoc_s k m) (to_js (VMap lid m)).
Proof.
  intros Hc Hk. cbn [core_value] in Hc. split; [|split].
  - intro key. cbn [to_js js_member]. rewrite assoc_s_map_to_js. destruct (assoc_s key m); reflexivity.
  - intros key v H. exact (core_assoc key m v Hc H).
  - intros key Hn. exact (ident_keys key m Hk Hn).
Qed.
Lemma datarel_obj dv jd : datarel dv jd -> exists m, jd = JObj m.
Proof. intros [H _]. specialize (H []). destruct jd; try discriminate. eauto. Qed.
Lemma datarel_set dv m k v : datarel dv (JObj m) -> core_value v = true -> is_ident k = true ->
  datarel (env_set dv k v) (JObj (aset m k (to_js v))).
Proof.
  intros (H1 & H2 & H3) Hv Hk. split; [|split].
  - intro key. cbn [js_member]. unfold env_set. destruct (bstr_eqb key k) eqn:E.
    + apply bstr_eqb_true in E. subst key. rewrite assoc_s_aset. reflexivity.
    + rewrite assoc_s_aset_other by exact E. exact (H1 key).
  - intros key x. unfold env_set. destruct (bstr_eqb key k); [intro E; inversion E; subst; exact Hv|apply H2].
  - intros key Hn. unfold env_set. destruct (bstr_eqb key k) eqn:E; [apply bstr_eqb_true in E; congruence|apply H3; exact Hn].
Qed.

(* ---- range(): the list the renderer builds, and the count the generated code computes ---- *)
Lemma small_between i m : (0 <= i <= m)%Z -> small m = true -> small i = true.
Proof. unfold small. intros H Hm. apply Z.leb_le in Hm. apply Z.leb_le. lia. Qed.
Lemma small_in a l v : small a = true -> small l = true -> (a <= v <= l \/ l <= v <= a)%Z -> small v = true.
Proof. unfold small. intros Ha Hl H. apply Z.leb_le in Ha, Hl. apply Z.leb_le. lia. Qed.
Lemma list_index_mid (pre : list value) v r : list_index (pre ++ v :: r) (Z.of_nat (length pre)) = v.
Proof.
  unfold list_index. rewrite app_length. cbn [length].
  replace (Z.of_nat (length pre) <? 0)%Z with false by (symmetry; apply Z.ltb_ge; lia).
  replace (Z.of_nat (length pre + S (length r)) <=? Z.of_nat (length pre))%Z with false by (symmetry; apply Z.leb_gt; lia).
  cbn [orb]. rewrite Nat2Z.id, nth_error_app2 by lia. rewrite Nat.sub_diag. reflexivity.
Qed.

Fixpoint lin_list (k : nat) (a st : Z) : list value :=
  match k with O => [] | S k' => VInt a :: lin_list k' (a + st)%Z st end.
Lemma lin_list_length k a st : length (lin_list k a st) = k.
Proof. revert a. induction k as [|k IH]; intro a; cbn [lin_list length]; [reflexivity|]. rewrite IH. reflexivity. Qed.
Lemma lin_list_mid st : forall pre k a v r, lin_list k a st = pre ++ v :: r -> v = VInt (a + Z.of_nat (length pre) * st).
Proof.
  induction pre as [|p pre IH]; intros k a v r H; destruct k as [|k]; cbn [lin_list app] in H; try discriminate.
  - inversion H; subst. cbn [length Z.of_nat]. f_equal. lia.
  - inversion H as [[Hp Hr]]. rewrite (IH k (a + st)%Z v r Hr). cbn [length]. f_equal. lia.
Qed.
(* the number of elements of range(a, l, st) *)
Definition range_cnt (a l st : Z) : Z := Z.max 0 ((l - a + st - 1) / st).
Lemma range_cnt_step a l st : (0 < st)%Z -> (a < l)%Z -> range_cnt a l st = (range_cnt (a + st) l st + 1)%Z.
Proof.
  intros Hs Hl. unfold range_cnt.
  replace (l - a + st - 1)%Z with ((l - (a + st) + st - 1) + 1 * st)%Z by lia. rewrite Z.div_add by lia.
  assert (0 <= (l - (a + st) + st - 1) / st)%Z by (apply Z.div_pos; lia). lia.
Qed.
Lemma range_cnt_zero a l st : (0 < st)%Z -> (l <= a)%Z -> range_cnt a l st = 0%Z.
Proof.
  intros Hs Hl. unfold range_cnt. assert ((l - a + st - 1) / st <= 0)%Z; [|lia].
  apply Z.lt_succ_r. apply Z.div_lt_upper_bound; lia.
Qed.
Lemma range_items_spec st l : (0 < st)%Z -> forall f a, (range_cnt a l st <= Z.of_nat f)%Z ->
  range_items f a l st = lin_list (Z.to_nat (range_cnt a l st)) a st.
Proof.
  intro Hs. induction f as [|f IH]; intros a Hf; cbn [range_items].
  - replace (Z.to_nat (range_cnt a l st)) with 0%nat by (unfold range_cnt in *; lia). reflexivity.
  - destruct (Z.ltb_spec a l) as [Hl|Hl].
    + rewrite (range_cnt_step a l st Hs Hl). assert (0 <= range_cnt (a + st) l st)%Z by (unfold range_cnt; lia).
      replace (Z.to_nat (range_cnt (a + st) l st + 1)) with (S (Z.to_nat (range_cnt (a + st) l st))) by lia.
      cbn [lin_list]. f_equal. apply IH. rewrite (range_cnt_step a l st Hs Hl) in Hf. lia.
    + rewrite range_cnt_zero by lia. reflexivity.
Qed.
(* Math.ceil(d / st) on integers *)
Lemma ceil_div d st : (0 < st)%Z -> (- ((- d) / st) = (d + st - 1) / st)%Z.
Proof.
  intro Hs. pose proof (Z.div_mod d st ltac:(lia)) as Hd. pose proof (Z.mod_pos_bound d st Hs) as Hm.
  set (q := (d / st)%Z) in *. set (m := (d mod st)%Z) in *.
  destruct (Z.eq_dec m 0) as [Hz|Hz].
  - replace (- d)%Z with ((- q) * st)%Z by lia. rewrite Z.div_mul by lia.
    replace (d + st - 1)%Z with (st - 1 + q * st)%Z by lia. rewrite Z.div_add by lia. rewrite Z.div_small by lia. lia.
  - replace (- d)%Z with ((st - m) + (- q - 1) * st)%Z by lia. rewrite Z.div_add by lia. rewrite (Z.div_small (st - m)) by lia.
    replace (d + st - 1)%Z with ((m - 1) + (q + 1) * st)%Z by lia. rewrite Z.div_add by lia. rewrite (Z.div_small (m - 1)) by lia. lia.
Qed.
Lemma range_cnt_bound a l st : (0 < st)%Z -> (0 <= range_cnt a l st)%Z /\ ((range_cnt a l st - 1) * st <= Z.max 0 (l - a - 1))%Z
  /\ (range_cnt a l st <= Z.max 0 (l - a))%Z.
Proof.
  intro Hs. unfold range_cnt. split; [lia|].
  destruct (Z.ltb_spec a l) as [Hl|Hl].
  - assert (H0 : (0 <= (l - a + st - 1) / st)%Z) by (apply Z.div_pos; lia).
    pose proof (Z.mul_div_le (l - a + st - 1) st Hs) as H1.
    assert (H2 : ((l - a + st - 1) / st <= l - a)%Z).
    { apply Z.lt_succ_r. apply Z.div_lt_upper_bound; [lia|]. nia. }
    split; [|lia]. rewrite Z.max_r by lia. nia.
  - assert (H0 : ((l - a + st - 1) / st <= 0)%Z) by (apply Z.lt_succ_r; apply Z.div_lt_upper_bound; lia).
    split; [|lia]. rewrite Z.max_l by lia. nia.
Qed.
(* the list of range(a, l, st) with a, l and l - a within 2^53: range_cnt integers a + k * st, all within 2^53 *)
Lemma range_items_facts a l st : (0 < st)%Z -> small a = true -> small l = true -> small (l - a) = true ->
  let items := range_items (Z.to_nat (Z.max 0 (l - a))) a l st in
  Z.of_nat (length items) = range_cnt a l st /\ small (range_cnt a l st) = true /\ forallb core_value items = true
  /\ forall pre v r, items = pre ++ v :: r ->
       v = VInt (a + Z.of_nat (length pre) * st) /\ (0 <= Z.of_nat (length pre) * st < l - a)%Z.
Proof.
  intros Hst Hsa Hsl Hsd items. destruct (range_cnt_bound a l st Hst) as (C0 & C1 & C2).
  assert (Hspec : items = lin_list (Z.to_nat (range_cnt a l st)) a st) by (apply range_items_spec; [exact Hst|lia]).
  assert (Hlen : Z.of_nat (length items) = range_cnt a l st) by (rewrite Hspec, lin_list_length; lia).
  assert (Helem : forall pre v r, items = pre ++ v :: r ->
            v = VInt (a + Z.of_nat (length pre) * st) /\ (0 <= Z.of_nat (length pre) * st < l - a)%Z).
  { intros pre v r Hs. split; [rewrite Hspec in Hs; exact (lin_list_mid st pre _ a v r Hs)|].
    assert (length items = (length pre + S (length r))%nat) by (rewrite Hs, app_length; reflexivity). clear - H Hlen C0 C1 C2 Hst. nia. }
  split; [exact Hlen|]. split; [|split; [|exact Helem]].
  - unfold small in *. apply Z.leb_le in Hsd. apply Z.leb_le. lia.
  - apply forallb_forall. intros v Hv. destruct (in_split v items Hv) as (pre & r & Hs). destruct (Helem pre v r Hs) as [-> Hb].
    cbn [core_value]. apply (small_in a l); [exact Hsa|exact Hsl|]. left. lia.
Qed.

(* the Soy environment inside a loop over $x: the loop's three variables, the rest as outside *)
Definition loop_env (env envk : bstr -> option value) (x : bstr) (last : Z) : Prop :=
  envk (x ++ c_lastindex) = Some (VInt last)
  /\ forall key, bstr_eqb key x = false -> bstr_eqb key (x ++ jk_index) = false -> bstr_eqb key (x ++ c_lastindex) = false -> envk key = env key.
Lemma loop_env_start env x last : loop_env env (env_set env (x ++ c_lastindex) (VInt last)) x last.
Proof. split; [unfold env_set; rewrite bstr_eqb_refl; reflexivity|]. intros key _ _ K3. unfold env_set. rewrite K3. reflexivity. Qed.
Lemma loop_env_round env envk x last v i : is_ident x = true -> loop_env env envk x last ->
  loop_env env (env_set (env_set envk x v) (x ++ jk_index) (VInt i)) x last.
Proof.
  intros Hx [L A]. split.
  - unfold env_set. rewrite (bstr_eqb_sym (x ++ c_lastindex) (x ++ jk_index)), index_neq_lastindex.
    rewrite (bstr_eqb_sym (x ++ c_lastindex) x), (ident_neq_lastindex x x Hx). exact L.
  - intros key K1 K2 K3. unfold env_set. rewrite K2, K1. apply A; assumption.
Qed.

(* [alia]: clear every hypothesis that is not arithmetic (keep_arith), then lia *)
Ltac keep_arith T :=
  lazymatch T with
  | @eq Z _ _ => idtac | @eq nat _ _ => idtac | @eq N _ _ => idtac
  | Z.le _ _ => idtac | Z.lt _ _ => idtac | Z.ge _ _ => idtac | Z.gt _ _ => idtac
  | le _ _ => idtac | lt _ _ => idtac | N.le _ _ => idtac | N.lt _ _ => idtac
  | _ /\ _ => idtac | _ \/ _ => idtac | ~ _ => idtac
  | _ => fail
  end.
Ltac alia := repeat match goal with H : ?T |- _ => tryif keep_arith T then fail else clear H end; lia.

Lemma jvget_set je g v : jvget (jvset je g v) g = Some v.
Proof. apply assoc_s_aset. Qed.
Lemma jvget_set_other je g v g' : bstr_eqb g' g = false -> jvget (jvset je g v) g' = jvget je g'.
Proof. apply assoc_s_aset_other. Qed.

(* the variables of one loop, and of different loops over $x, have different names: $x plus different suffixes *)
Create HintDb jsnames.
#[local] Hint Extern 1 (bstr_eqb _ _ = false) => apply jsc_name_neq : jsnames.
#[local] Hint Resolve app_neq_self app_neq_tails not_eq_sym : jsnames.
#[local] Hint Extern 1 (_ <> _) => discriminate : jsnames.

Section JsStmts.
Variable ij : option value.
Variable mode : N.
Variable denv : bstr -> option value.
Variable callee : bstr -> (bstr -> option value) -> option bstr.
Variable jfn : bstr -> jval -> jval -> outcome bstr.
Notation js_exec := (js_exec jfn). Notation jb_exec := (jb_exec jfn). Notation jl_exec := (jl_exec jfn). Notation jk_exec := (jk_exec jfn).
Notation sout' := (sout ij mode go_print_text denv callee). Notation bout' := (bout ij mode go_print_text denv callee).

Definition jinv (buf : bstr) (sc : list (list (bstr * bstr))) (env : bstr -> option value) (je : jenv) (old : bstr) : Prop :=
  env_rel sc ij env je /\ assoc_s buf (je_vars je) = Some (JStr old).
(* a statement generated from counter n leaves opt_data and every variable alone that is not the buffer
   and whose name, read as a generated name, has a counter up to n *)
Definition frame (buf : bstr) (n : N) (je je' : jenv) : Prop :=
  je_data je' = je_data je
  /\ forall g, bounded n g -> bstr_eqb g buf = false -> assoc_s g (je_vars je') = assoc_s g (je_vars je).

Lemma frame_refl buf n je : frame buf n je je.
Proof. split; auto. Qed.
Lemma frame_trans buf n n1 je je1 je2 : n <= n1 -> frame buf n je je1 -> frame buf n1 je1 je2 -> frame buf n je je2.
Proof.
  intros Hn [D1 F1] [D2 F2]. split; [congruence|]. intros g Hg Hb. rewrite F2; auto. eapply bounded_mono; eauto.
Qed.
Lemma frame_comp buf n a c d : frame buf n a c -> frame buf n c d -> frame buf n a d.
Proof. apply frame_trans. lia. Qed.
(* setting a variable whose name carries the next counter touches nothing a frame of counter n talks about, and not the buffer *)
Lemma frame_set_new buf n je jek y v : frame buf n je jek -> frame buf n je (jvset jek (jsc_name y (n + 1)) v).
Proof.
  intro F. apply (frame_comp _ _ _ _ _ F). split; [reflexivity|]. intros g Hg _. apply assoc_s_aset_other, bounded_fresh, Hg.
Qed.
Lemma buf_set_new sc n buf je y v : ginv sc n buf -> jvget (jvset je (jsc_name y (n + 1)) v) buf = jvget je buf.
Proof. intro G. apply jvget_set_other, bounded_fresh, G. Qed.
(* seen from outside, a run whose buffer is a variable of the next counter touched only newer variables *)
Lemma frame_newbuf buf n y a c : bounded n buf -> frame (jsc_name y (n + 1)) (n + 1) a c ->
  frame buf n a c /\ jvget c buf = jvget a buf.
Proof.
  intros Hb [D F].
  assert (H : forall g, bounded n g -> jvget c g = jvget a g).
  { intros g Hg. apply F; [eapply bounded_mono; [|exact Hg]; lia|apply bounded_fresh; exact Hg]. }
  split; [split; [exact D|intros g Hg _; exact (H g Hg)]|exact (H buf Hb)].
Qed.

Lemma env_rel_push sc env je : env_rel sc ij env je -> env_rel ([] :: sc) ij env je.
Proof. intros [Ev Ei Ec Eci El]. constructor; auto. intros x i H. rewrite jsc_loop_push. apply El; exact H. Qed.

Lemma env_rel_frame buf sc n env je je' : ginv sc n buf -> env_rel sc ij env je -> frame buf n je je' -> env_rel sc ij env je'.
Proof.
  intros [H0 H1 H2 H3 H4 H5] [Ev Ei Ec Eci El] [D F]. constructor; auto.
  - intros key Hid Hk. specialize (Ev key Hid Hk). destruct (jsc_lookup sc key) as [|c g] eqn:El0.
    + rewrite D. exact Ev.
    + rewrite F; [exact Ev| |]; rewrite <- El0; [apply H1|apply H3]; (apply ident_neq_jk; [exact Hid|reflexivity]).
  - intros v Hv. rewrite F; [apply Ei; exact Hv|apply opt_ij_bounded|exact H4].
  - intros x i Hx. destruct (El x i Hx) as (A & B & C). destruct (H5 x) as (P & Q & R & S0).
    split; [exact A|]. split; [rewrite F; auto|]. intros l Hl. rewrite F; auto.
Qed.

Lemma jinv_frame buf sc n env je je' old new : ginv sc n buf -> jinv buf sc env je old -> frame buf n je je' ->
  assoc_s buf (je_vars je') = Some (JStr new) -> jinv buf sc env je' new.
Proof. intros G [ER _] F Hb. split; [eapply env_rel_frame; eauto|exact Hb]. Qed.

Lemma js_append_ok buf sc n env je old t : ginv sc n buf -> jinv buf sc env je old ->
  exists je', js_append_text je buf t = Ok je' /\ jinv buf sc env je' (old ++ t) /\ frame buf n je je'.
Proof.
  intros G I. unfold js_append_text. rewrite (proj2 I). eexists. split; [reflexivity|].
  assert (F : frame buf n je {| je_vars := aset (je_vars je) buf (JStr (old ++ t)); je_data := je_data je |}).
  { split; [reflexivity|]. intros g _ Hg. apply assoc_s_aset_other. exact Hg. }
  split; [exact (jinv_frame _ _ _ _ _ _ _ _ G I F (assoc_s_aset _ _ _))|exact F].
Qed.

(* binding a Soy name to the fresh variable v_<n+1> that holds its value *)
Lemma env_rel_bind buf sc n env je je' name v : is_ident name = true -> ginv sc n buf -> env_rel sc ij env je -> frame buf n je je' ->
  assoc_s (jsc_name name (n + 1)) (je_vars je') = Some (to_js v) -> core_value v = true ->
  env_rel (jsc_bind_pure sc name (jsc_name name (n + 1))) ij (env_set env name v) je'.
Proof.
  intros Hid G ER F Hg Hcv. pose proof (env_rel_frame buf sc n env je je' G ER F) as [Xv Xi Xc Xci Xl].
  destruct G as [G0 G1 G2 G3 G4 G5]. constructor.
  - intros key Hkid Hk. unfold env_val, env_set. destruct (bstr_eqb key name) eqn:Ekn.
    + apply bstr_eqb_true in Ekn. subst key. rewrite jsc_lookup_bind_same by exact G0.
      destruct (jsc_name_cons name (n + 1)) as (c & r & Hc). rewrite Hc. rewrite <- Hc. exact Hg.
    + rewrite jsc_lookup_bind_other by exact Ekn. specialize (Xv key Hkid Hk). unfold env_val in Xv. exact Xv.
  - exact Xi.
  - intro key. unfold env_val, env_set. destruct (bstr_eqb key name); [exact Hcv|apply Xc].
  - exact Xci.
  - intros x i. unfold env_set. rewrite (bstr_eqb_sym (x ++ jk_index)), (ident_neq_index name x Hid).
    rewrite (bstr_eqb_sym (x ++ c_lastindex)), (ident_neq_lastindex name x Hid). rewrite jsc_loop_bind by exact Hid. apply Xl.
Qed.

Lemma khit_js sc env je sv vs : env_rel sc ij env je -> prim_value sv = true -> forall h,
  khit ij env sv vs = Some h -> jk_hit je (to_js sv) (map (cgen sc) vs) = Ok h.
Proof.
  intros ER Hs. induction vs as [|x r IH]; intros h E; cbn [khit map jk_hit] in *.
  - inversion E; reflexivity.
  - apply some_bind in E as (cv & Ex & E). apply some_if in E as [Hc E].
    destruct (cgen_correct sc ij env je ER x cv Ex) as [Hj _]. rewrite Hj. cbn [bind].
    rewrite (strict_eq_prim sv cv Hs Hc). destruct (equals sv cv).
    + inversion E; reflexivity.
    + apply IH. exact E.
Qed.

Definition JP_s (s : cstmt) : Prop := forall buf sc n env je old text env' j sc' n',
  ginv sc n buf -> sout ij mode go_print_text denv callee env s = Some (text, env') -> jinv buf sc env je old -> datarel denv (je_data je) ->
  sgen mode buf sc n s = (j, (sc', n')) ->
  exists je', js_exec je j = Ok je' /\ jinv buf sc' env' je' (old ++ text) /\ frame buf n je je'.
Definition JP_b (b : cblk) : Prop := forall buf sc n env je old text jb n',
  ginv sc n buf -> bout ij mode go_print_text denv callee env b = Some text -> jinv buf sc env je old -> datarel denv (je_data je) ->
  bgen mode buf sc n b = (jb, n') ->
  exists je', jb_exec je jb = Ok je' /\ assoc_s buf (je_vars je') = Some (JStr (old ++ text)) /\ frame buf n je je'.
Definition JP_e (e : celse) : Prop := forall buf sc n env je old text jl n',
  ginv sc n buf -> eout ij mode go_print_text denv callee env e = Some text -> jinv buf sc env je old -> datarel denv (je_data je) ->
  egen mode buf sc n e = (jl, n') ->
  exists je', jl_exec je jl = Ok je' /\ assoc_s buf (je_vars je') = Some (JStr (old ++ text)) /\ frame buf n je je'.
Definition JP_k (k : ccases) : Prop := forall buf sc n env je old text sv jk n',
  ginv sc n buf -> prim_value sv = true -> kout ij mode go_print_text denv callee env sv k = Some text -> jinv buf sc env je old -> datarel denv (je_data je) ->
  kgen mode buf sc n k = (jk, n') ->
  exists je', jk_exec je (to_js sv) jk = Ok je' /\ assoc_s buf (je_vars je') = Some (JStr (old ++ text)) /\ frame buf n je je'.
(* the parameters of a call: the content blocks run in order, each into a new variable param_<counter>; then the object
   literal is evaluated -- value parameters by their expressions, content parameters by their variables -- and updates the
   data object as the parameters update the callee's data *)
Definition JP_p (ps : cparams) : Prop := forall buf sc n env je old base cenv m jps n',
  ginv sc n buf -> pout ij mode go_print_text denv callee env ps base = Some cenv -> jinv buf sc env je old -> datarel denv (je_data je) ->
  pgen mode sc n ps = (jps, n') -> datarel base (JObj m) ->
  exists je' vs, jp_exec jfn je jps = Ok je' /\ frame buf n je je' /\ assoc_s buf (je_vars je') = Some (JStr old)
    /\ js_eval_params je' (jp_args jps) = Ok vs
    /\ datarel cenv (JObj (fold_left (fun acc kv => aset acc (fst kv) (snd kv)) vs m)).

(* the plural: the switch over the numbers runs the block of the selected body *)
Definition JP_q (q : cplur) : Prop := forall buf sc n env je old text i jk n',
  ginv sc n buf -> qout ij mode go_print_text denv callee env i q = Some text -> jinv buf sc env je old -> datarel denv (je_data je) ->
  qgen mode buf sc n q = (jk, n') ->
  exists je', jk_exec je (JNum i) jk = Ok je' /\ assoc_s buf (je_vars je') = Some (JStr (old ++ text)) /\ frame buf n je je'.

(* what JP_b, JP_e, JP_k and JP_q conclude of a run r: it succeeds, the buffer variable holds new, the frame is kept *)
Definition jres (buf : bstr) (n : N) (je : jenv) (r : outcome jenv) (new : bstr) : Prop :=
  exists je', r = Ok je' /\ jvget je' buf = Some (JStr new) /\ frame buf n je je'.
Lemma jres_from {buf n n1 je jek r new} : n <= n1 -> frame buf n je jek -> jres buf n1 jek r new -> jres buf n je r new.
Proof. intros Hn Fk (je' & X & Hb & F). exists je'. split; [exact X|]. split; [exact Hb|exact (frame_trans _ _ _ _ _ _ Hn Fk F)]. Qed.
(* a statement that binds nothing: the environments are related as before *)
Lemma jres_stmt {buf sc n env je old r new} : ginv sc n buf -> jinv buf sc env je old -> jres buf n je r new ->
  exists je', r = Ok je' /\ jinv buf sc env je' new /\ frame buf n je je'.
Proof. intros G I (je' & X & Hb & F). exists je'. split; [exact X|]. split; [exact (jinv_frame _ _ _ _ _ _ _ _ G I F Hb)|exact F]. Qed.
Lemma jres_nil buf n je old : jvget je buf = Some (JStr old) -> jres buf n je (Ok je) (old ++ []).
Proof. intro Hb. exists je. rewrite app_nil_r. split; [reflexivity|]. split; [exact Hb|apply frame_refl]. Qed.

(* a block is translated and run under one more (empty) frame *)
Lemma JP_block b : JP_b b -> forall buf sc n env je old text jb n',
  ginv sc n buf -> bout' env b = Some text -> jinv buf sc env je old -> datarel denv (je_data je) ->
  bgen mode buf ([] :: sc) n b = (jb, n') -> jres buf n je (jb_exec je jb) (old ++ text).
Proof.
  intros Hb buf sc n env je old text jb n' G E [ER Hbuf] DR Eg.
  apply (Hb buf ([] :: sc) n env je old text jb n'); auto. apply ginv_push; exact G. split; [apply env_rel_push; exact ER|exact Hbuf].
Qed.

(* a block that renders into a new variable (the content of a let or of a parameter): afterwards the variable holds the
   block's text, and seen from outside only newer variables have changed *)
Lemma js_capture body : JP_b body -> forall buf sc n y env je old t jb n1,
  ginv sc n buf -> bout' env body = Some t -> jinv buf sc env je old -> datarel denv (je_data je) ->
  bgen mode (jsc_name y (n + 1)) ([] :: sc) (n + 1) body = (jb, n1) ->
  exists je1, jb_exec (jvset je (jsc_name y (n + 1)) (JStr [])) jb = Ok je1
    /\ jvget je1 (jsc_name y (n + 1)) = Some (JStr t) /\ jinv buf sc env je1 old /\ frame buf n je je1.
Proof.
  intros HB buf sc n y env je old t jb n1 G Et I DR E1.
  pose proof (frame_set_new buf n je je y (JStr []) (frame_refl _ _ _)) as F0.
  destruct (JP_block body HB (jsc_name y (n + 1)) sc (n + 1) env _ [] t jb n1 (ginv_newbuf sc n buf y G) Et
              (conj (env_rel_frame buf sc n env je _ G (proj1 I) F0) (jvget_set _ _ _)) DR E1) as (je1 & X & Hg & F1).
  destruct (frame_newbuf buf n y _ _ (gi_buf _ _ _ G) F1) as [F Hb].
  exists je1. split; [exact X|]. split; [exact Hg|]. pose proof (frame_comp _ _ _ _ _ F0 F) as F'.
  split; [|exact F']. exact (jinv_frame buf sc n env je je1 old old G I F' (eq_trans Hb (eq_trans (buf_set_new sc n buf je y _ G) (proj2 I)))).
Qed.

Lemma env_rel_round buf sc n env je envk je1 x last v i :
  is_ident x = true -> ginv sc n buf -> env_rel sc ij env je -> frame buf n je je1 ->
  loop_env env envk x last -> envk x = Some v -> envk (x ++ jk_index) = Some (VInt i) ->
  core_value v = true -> small i = true -> small last = true ->
  jvget je1 (jsc_name x (n + 1)) = Some (to_js v) -> jvget je1 (jsc_name (x ++ t_index) (n + 1)) = Some (JNum i) ->
  jvget je1 (jsc_name (x ++ t_limit) (n + 1)) = Some (JNum (last + 1)) ->
  env_rel (loop_frame x (n + 1) :: sc) ij envk je1.
Proof.
  intros Hx G ER F [L A] Ex Ei Hcv Hsi Hsl Jd Ji Jl.
  pose proof (env_rel_frame buf sc n env je je1 G ER F) as [Xv Xi Xc Xci Xl]. constructor.
  - intros key Hid Hk. rewrite jsc_lookup_frame by exact Hx. unfold env_val.
    destruct (bstr_eqb key x) eqn:Ekx.
    + apply bstr_eqb_true in Ekx. subst key. rewrite Ex. destruct (jsc_name_cons x (n + 1)) as (c0 & r0 & Hc). rewrite Hc. rewrite <- Hc. exact Jd.
    + rewrite (ident_neq_jk key jk_var Hid eq_refl), (ident_neq_jk key jk_limit Hid eq_refl), (ident_neq_jk key jk_index Hid eq_refl).
      rewrite (A key Ekx (ident_neq_index key x Hid) (ident_neq_lastindex key x Hid)). exact (Xv key Hid Hk).
  - exact Xi.
  - intro key. unfold env_val.
    destruct (bstr_eqb key x) eqn:K1; [apply bstr_eqb_true in K1; subst; rewrite Ex; exact Hcv|].
    destruct (bstr_eqb key (x ++ jk_index)) eqn:K2; [apply bstr_eqb_true in K2; subst; rewrite Ei; exact Hsi|].
    destruct (bstr_eqb key (x ++ c_lastindex)) eqn:K3; [apply bstr_eqb_true in K3; subst; rewrite L; exact Hsl|].
    rewrite (A key K1 K2 K3). apply Xc.
  - exact Xci.
  - intros y i' Hy. rewrite jsc_loop_frame by exact Hx. destruct (bstr_eqb x y) eqn:Exy.
    + apply bstr_eqb_true in Exy. subst y. cbn [fst snd]. rewrite Ei in Hy. inversion Hy; subst i'.
      split; [destruct (jsc_name_cons (x ++ t_index) (n + 1)) as (c0 & r0 & Hc); rewrite Hc; discriminate|].
      split; [exact Ji|]. intros l Hl. rewrite L in Hl. inversion Hl; subst. exact Jl.
    + assert (Hyx : bstr_eqb (y ++ jk_index) (x ++ jk_index) = false) by (rewrite app_same_tail_eqb, bstr_eqb_sym; exact Exy).
      assert (K1 : bstr_eqb (y ++ jk_index) x = false) by (rewrite bstr_eqb_sym; apply ident_neq_index; exact Hx).
      rewrite (A _ K1 Hyx (index_neq_lastindex y x)) in Hy.
      destruct (Xl y i' Hy) as (P & Q & R). split; [exact P|]. split; [exact Q|].
      intros l Hl. apply R. rewrite <- Hl. symmetry. apply A.
      * rewrite bstr_eqb_sym; apply ident_neq_lastindex; exact Hx.
      * rewrite bstr_eqb_sym. apply index_neq_lastindex.
      * rewrite app_same_tail_eqb, bstr_eqb_sym; exact Exy.
Qed.

(* what the rounds need of the item expression: it gives the element of the round as long as the variables it reads are
   stable, and these are variables of this loop other than the item and the index (a definition, so that the arithmetic
   tactics do not look inside) *)
Definition item_ok (n : N) (x : bstr) (l : list value) (item : jenv -> Z -> outcome jval) (stable : jenv -> Prop) : Prop :=
  (forall je0 pre v r, stable je0 -> l = pre ++ v :: r -> item je0 (Z.of_nat (length pre)) = Ok (to_js v))
  /\ (forall je0 je1, stable je0 ->
        (forall y, y <> x -> y <> x ++ t_index -> jvget je1 (jsc_name y (n + 1)) = jvget je0 (jsc_name y (n + 1))) -> stable je1).

(* the rounds of the generated for loop, from round |pre| on *)
Lemma js_rounds body (HB : JP_b body) buf sc n x env je last l jb n2 :
  is_ident x = true -> ginv sc n buf -> env_rel sc ij env je -> datarel denv (je_data je) ->
  bgen mode buf ([] :: loop_frame x (n + 1) :: sc) (n + 1) body = (jb, n2) ->
  small (last + 1) = true -> (0 <= last)%Z -> Z.of_nat (length l) = (last + 1)%Z ->
  forallb core_value l = true ->
  forall (item : jenv -> Z -> outcome jval) (stable : jenv -> Prop), item_ok n x l item stable ->
  forall items pre envk jek old text, l = pre ++ items ->
    loop_env env envk x last ->
    for_out (fun en => bout' en body) x envk (Z.of_nat (length pre)) items = Some text ->
    frame buf n je jek -> jvget jek buf = Some (JStr old) ->
    stable jek ->
    jvget jek (jsc_name (x ++ t_limit) (n + 1)) = Some (JNum (last + 1)) ->
    jvget jek (jsc_name (x ++ t_index) (n + 1)) = Some (JNum (Z.of_nat (length pre))) ->
    jres buf n je (js_for (fun en => jb_exec en jb) item (jsc_name x (n + 1))
                          (jsc_name (x ++ t_limit) (n + 1)) (jsc_name (x ++ t_index) (n + 1)) (length items) jek) (old ++ text).
Proof.
  intros Hx G ER DR Eg Hsl1 Hl0 Hlen Hcore item stable HIK.
  set (vd := jsc_name x (n + 1)) in *. set (vlen := jsc_name (x ++ t_limit) (n + 1)) in *. set (vidx := jsc_name (x ++ t_index) (n + 1)) in *.
  pose proof (ginv_loop sc n buf x Hx G) as G1.
  assert (Hsl : small last = true) by (apply (small_between last (last + 1)); [alia|exact Hsl1]).
  induction items as [|v r IH]; intros pre envk jek old text Hl LE Ef Fk Hb Jl Jn Ji.
  - cbn [for_out] in Ef. inversion Ef; subst text. rewrite app_nil_r in Hl. subst pre.
    cbn [length js_for]. rewrite Ji, Jn.
    replace (Z.of_nat (length l) <? last + 1)%Z with false by (symmetry; apply Z.ltb_ge; alia).
    exists jek. rewrite app_nil_r. auto.
  - cbn [for_out] in Ef. set (i := Z.of_nat (length pre)) in *.
    set (env1 := env_set (env_set envk x v) (x ++ jk_index) (VInt i)) in *.
    apply some_bind in Ef as (t & Et & Ef). apply some_bind in Ef as (t' & Er & Ef). inversion Ef; subst text. clear Ef.
    assert (Hlenl : length l = (length pre + S (length r))%nat) by (rewrite Hl, app_length; reflexivity).
    assert (Hi : (0 <= i <= last)%Z) by (subst i; alia).
    cbn [length js_for]. rewrite Ji, Jn.
    replace (i <? last + 1)%Z with true by (symmetry; apply Z.ltb_lt; alia).
    rewrite (proj1 HIK jek pre v r Jl Hl : item jek i = _). cbn [bind].
    (* the round's body, with the item bound *)
    pose proof (frame_set_new buf n je jek x (to_js v) Fk) as F1. fold vd in F1.
    assert (LE1 : loop_env env env1 x last) by (apply loop_env_round; assumption).
    assert (Hv : core_value v = true).
    { apply (proj1 (forallb_forall _ _) Hcore). rewrite Hl. apply in_or_app. right. left. reflexivity. }
    assert (ER1 : env_rel (loop_frame x (n + 1) :: sc) ij env1 (jvset jek vd (to_js v))).
    { apply (env_rel_round buf sc n env je env1 _ x last v i Hx G ER F1 LE1).
      - subst env1. unfold env_set. rewrite (ident_neq_index x x Hx), bstr_eqb_refl. reflexivity.
      - subst env1. unfold env_set. rewrite bstr_eqb_refl. reflexivity.
      - exact Hv.
      - apply (small_between i last Hi Hsl).
      - exact Hsl.
      - apply jvget_set.
      - rewrite jvget_set_other by auto with jsnames. exact Ji.
      - rewrite jvget_set_other by auto with jsnames. exact Jn. }
    destruct (JP_block body HB buf (loop_frame x (n + 1) :: sc) (n + 1) env1 _ old t jb n2 G1 Et
                (conj ER1 (eq_trans (buf_set_new sc n buf jek x _ G) Hb)) (eq_ind_r (fun d => datarel denv d) DR (proj1 F1)) Eg)
      as (je2 & X & Hb2 & F2).
    rewrite X. cbn [bind].
    (* it leaves the other variables of the loop alone *)
    assert (Keep : forall y, bstr_eqb (jsc_name y (n + 1)) vd = false -> jvget je2 (jsc_name y (n + 1)) = jvget jek (jsc_name y (n + 1))).
    { intros y Hy. unfold jvget. rewrite (proj2 F2) by (try apply bounded_new; rewrite bstr_eqb_sym; apply bounded_fresh, G).
      apply assoc_s_aset_other. exact Hy. }
    rewrite (Keep (x ++ t_index) ltac:(auto with jsnames) : jvget je2 vidx = jvget jek vidx), Ji.
    unfold js_num. replace (small (i + 1)) with true by (symmetry; apply (small_between (i + 1) (last + 1)); [alia|exact Hsl1]). cbn [bind].
    assert (F3 : frame buf n je (jvset je2 vidx (JNum (i + 1)))).
    { apply frame_set_new. exact (frame_trans buf n (n + 1) _ _ _ ltac:(alia) F1 F2). }
    replace (old ++ t ++ t') with ((old ++ t) ++ t') by (symmetry; apply app_assoc).
    apply (IH (pre ++ [v]) env1 _ (old ++ t) t').
    + rewrite <- app_assoc. exact Hl.
    + exact LE1.
    + rewrite app_length. cbn [length]. replace (Z.of_nat (length pre + 1)) with (i + 1)%Z by (subst i; alia). exact Er.
    + exact F3.
    + rewrite (buf_set_new sc n buf je2 (x ++ t_index) _ G). exact Hb2.
    + apply (proj2 HIK jek _ Jl). intros y Hy1 Hy2. rewrite jvget_set_other by auto with jsnames. apply Keep. auto with jsnames.
    + rewrite jvget_set_other by auto with jsnames. rewrite (Keep (x ++ t_limit) ltac:(auto with jsnames) : jvget je2 vlen = jvget jek vlen). exact Jn.
    + rewrite jvget_set, app_length. cbn [length]. f_equal. f_equal. subst i. clear - pre. lia.
Qed.

(* the loop of a foreach or a for over range(), after the declarations that are not common to both: the limit variable
   holds the number of elements, the item expression gives them *)
Lemma js_loop body ie (HB : JP_b body) (HI : JP_b ie) buf sc n x (hasie : bool) env je jek old text l jb n1 ji n2 item stable :
  is_ident x = true -> ginv sc n buf -> jinv buf sc env je old -> datarel denv (je_data je) ->
  bgen mode buf ([] :: loop_frame x (n + 1) :: sc) (n + 1) body = (jb, n1) ->
  (if hasie then bgen mode buf ([] :: sc) n1 ie else (JBNil, n1)) = (ji, n2) ->
  small (Z.of_nat (length l)) = true -> forallb core_value l = true ->
  for_text ij mode go_print_text denv callee x body hasie ie env l text ->
  item_ok n x l item stable ->
  frame buf n je jek -> jvget jek buf = Some (JStr old) -> stable jek ->
  jvget jek (jsc_name (x ++ t_limit) (n + 1)) = Some (JNum (Z.of_nat (length l))) ->
  jres buf n je (if hasie && (Z.of_nat (length l) <=? 0)%Z then jb_exec jek ji
                 else js_for (fun en => jb_exec en jb) item (jsc_name x (n + 1)) (jsc_name (x ++ t_limit) (n + 1)) (jsc_name (x ++ t_index) (n + 1))
                             (length l) (jvset jek (jsc_name (x ++ t_index) (n + 1)) (JNum 0))) (old ++ text).
Proof.
  intros Hx G I DR E1 E2 Hsm Hcl Ht HIK Fk Hb Jl Jn.
  assert (Hn1 : n <= n1) by (pose proof (bgen_mono _ _ _ _ _ _ _ E1); lia).
  assert (F0 : frame buf n je (jvset jek (jsc_name (x ++ t_index) (n + 1)) (JNum 0))) by (apply frame_set_new; exact Fk).
  assert (Hb0 : jvget (jvset jek (jsc_name (x ++ t_index) (n + 1)) (JNum 0)) buf = Some (JStr old)) by (rewrite (buf_set_new sc n buf jek _ _ G); exact Hb).
  unfold for_text in Ht. destruct l as [|v0 r0].
  - destruct hasie; cbn [andb length Z.of_nat Z.leb Z.compare].
    + apply (jres_from Hn1 Fk).
      exact (JP_block ie HI buf sc n1 env jek old text ji n2 (ginv_mono sc n n1 buf Hn1 G) Ht
               (jinv_frame buf sc n env je jek old old G I Fk Hb) (eq_ind_r (fun d => datarel denv d) DR (proj1 Fk)) E2).
    + subst text. cbn [js_for]. rewrite jvget_set, jvget_set_other, Jn by auto with jsnames. cbn [Z.ltb Z.compare].
      apply (jres_from (N.le_refl n) F0). apply jres_nil. exact Hb0.
  - set (l := v0 :: r0) in *.
    replace (hasie && (Z.of_nat (length l) <=? 0)%Z) with false by (subst l; cbn [length]; rewrite andb_comm; symmetry; apply andb_false_intro1; apply Z.leb_gt; lia).
    apply (js_rounds body HB buf sc n x env je (Z.of_nat (length l) - 1) l jb n1 Hx G (proj1 I) DR E1) with (items := l) (pre := @nil value)
      (stable := stable) (envk := env_set env (x ++ c_lastindex) (VInt (Z.of_nat (length l) - 1))).
    + replace (Z.of_nat (length l) - 1 + 1)%Z with (Z.of_nat (length l)) by lia. exact Hsm.
    + subst l. cbn [length]. lia.
    + lia.
    + exact Hcl.
    + exact HIK.
    + reflexivity.
    + apply loop_env_start.
    + exact Ht.
    + exact F0.
    + exact Hb0.
    + apply (proj2 HIK jek _ Jl). intros y _ Hy. apply jvget_set_other. auto with jsnames.
    + rewrite jvget_set_other by auto with jsnames. rewrite Jn. f_equal. f_equal. lia.
    + apply jvget_set.
Qed.

Lemma range_args_js sc env je a1 rest zs a l st : env_rel sc ij env je -> cints ij env (a1 :: rest) = Some zs ->
  range_args 0%Z 1%Z zs = Some (a, l, st) ->
  exists ei el es, range_args (JENum 0) (JENum 1) (map (cgen sc) (a1 :: rest)) = Some (ei, el, es)
    /\ small a = true /\ small l = true /\ small st = true
    /\ forall je', env_rel sc ij env je' -> js_eval je' ei = Ok (JNum a) /\ js_eval je' el = Ok (JNum l) /\ js_eval je' es = Ok (JNum st).
Proof.
  intros ER Hc Hr. destruct (cints_range ij env _ zs a l st Hc Hr) as (ci & cl & cs & Hra & Ea & El & Es).
  exists (cgen sc ci), (cgen sc cl), (cgen sc cs).
  split; [rewrite (range_args_map (cgen sc) (CInt 0) (CInt 1) (a1 :: rest) : range_args (JENum 0) (JENum 1) _ = _), Hra; reflexivity|].
  split; [exact (proj2 (cgen_correct sc ij env je ER ci _ Ea))|]. split; [exact (proj2 (cgen_correct sc ij env je ER cl _ El))|].
  split; [exact (proj2 (cgen_correct sc ij env je ER cs _ Es))|].
  intros je' ER'. split; [exact (proj1 (cgen_correct sc ij env je' ER' ci _ Ea))|].
  split; [exact (proj1 (cgen_correct sc ij env je' ER' cl _ El))|exact (proj1 (cgen_correct sc ij env je' ER' cs _ Es))].
Qed.

Lemma js_raw t : JP_s (SRaw t).
Proof.
  intros buf sc n env je old text env' j sc' n' G E I DR Eg. rewrite sout_raw in E. rewrite sgen_raw in Eg. inversion E; subst. inversion Eg; subst.
  exact (js_append_ok buf sc' n' env' je old text G I).
Qed.

Lemma js_print e ds : JP_s (SPrint e ds).
Proof.
  intros buf sc n env je old text env' j sc' n' G E I DR Eg. rewrite sout_print in E. rewrite sgen_print_eq in Eg. inversion Eg; subst. clear Eg.
  apply some_bind in E as (v & Ev & E). apply some_bind in E as (str & Es & E). apply some_if in E as [Ec E]. inversion E; subst. clear E.
  destruct (scalar_string_ok v str Es) as (_ & _ & Ht).
  destruct (cgen_correct sc' ij env' je (proj1 I) e v Ev) as [Hj _].
  destruct (js_print_expr je mode ds (cgen sc' e) (to_js v) str Hj Ht) as (jv' & Ej & Tj).
  rewrite (print_text_agree mode ds str (cleanb_ok _ Ec)) in Tj.
  destruct (js_append_ok buf sc' n' env' je old (go_print_text mode ds str) G I) as (je' & X & R). exists je'. split; [|exact R].
  cbn [js_exec]. unfold js_append. rewrite Ej. cbn [bind]. rewrite Tj. unfold js_append_text in X.
  destruct (assoc_s buf (je_vars je)) as [[| | | |s| |]|]; try discriminate X. inversion X. reflexivity.
Qed.

Lemma js_let name e : JP_s (SLet name e).
Proof.
  intros buf sc n env je old text env' j sc' n' G E I DR Eg. rewrite sout_let in E. rewrite sgen_let in Eg. inversion Eg; subst. clear Eg.
  apply some_ifn in E as [_ E]. apply some_if in E as [Hid E]. apply some_bind in E as (v & Ev & E). inversion E; subst. clear E.
  destruct (cgen_correct sc ij env je (proj1 I) e v Ev) as [Hj Hcv].
  rewrite js_exec_var, Hj. cbn [bind]. eexists. split; [reflexivity|]. rewrite app_nil_r.
  pose proof (frame_set_new buf n je je name (to_js v) (frame_refl _ _ _)) as F.
  split; [|exact F]. split; [|exact (eq_trans (buf_set_new sc n buf je name _ G) (proj2 I))].
  exact (env_rel_bind buf sc n env je _ name v Hid G (proj1 I) F (jvget_set _ _ _) Hcv).
Qed.

Lemma js_letc name body : JP_b body -> JP_s (SLetC name body).
Proof.
  intros IHb buf sc n env je old text env' j sc' n' G E I DR Eg. rewrite sout_letc in E. rewrite sgen_letc in Eg.
  apply some_ifn in E as [_ E]. apply some_if in E as [Hid E]. apply some_bind in E as (t & Et & E). inversion E; subst. clear E.
  destruct (bgen mode (jsc_name name (n + 1)) ([] :: sc) (n + 1) body) as [jb n1] eqn:E1. inversion Eg; subst. clear Eg.
  destruct (js_capture body IHb buf sc n name env je old t jb n' G Et I DR E1) as (je1 & X & Hg & I1 & F).
  exists je1. rewrite app_nil_r, js_exec_varblock. split; [exact X|]. split; [|exact F]. split; [|apply I1].
  exact (env_rel_bind buf sc n env je je1 name (VStr t) Hid G (proj1 I) F Hg eq_refl).
Qed.

Lemma js_if c th (IHt : JP_b th) rest (IHr : JP_e rest) : JP_s (SIf c th rest).
Proof.
  intros buf sc n env je old text env' j sc' n' G E I DR Eg. rewrite sout_if in E. rewrite sgen_if in Eg.
  destruct (bgen mode buf ([] :: sc) n th) as [jt n1] eqn:E1. destruct (egen mode buf sc n1 rest) as [jr n2] eqn:E2. inversion Eg; subst. clear Eg.
  apply some_bind in E as (v & Ev & E). apply some_with in E as [Et ->].
  destruct (cgen_correct sc' ij env je (proj1 I) c v Ev) as [Hj Hcv].
  rewrite js_exec_if, Hj. cbn [bind]. rewrite truthy_js by exact Hcv. apply (jres_stmt G I).
  pose proof (bgen_mono _ _ _ _ _ _ _ E1) as Hn1. destruct (truthy v).
  - exact (JP_block th IHt buf sc' n env je old text jt n1 G Et I DR E1).
  - apply (jres_from Hn1 (frame_refl _ _ _)). exact (IHr buf sc' n1 env je old text jr n' (ginv_mono _ _ _ _ Hn1 G) Et I DR E2).
Qed.

Lemma js_switch v cs : JP_k cs -> JP_s (SSwitch v cs).
Proof.
  intros IHk buf sc n env je old text env' j sc' n' G E I DR Eg. rewrite sout_switch in E. rewrite sgen_switch in Eg.
  destruct (kgen mode buf sc n cs) as [jc n1] eqn:E1. inversion Eg; subst. clear Eg.
  apply some_bind in E as (sv & Ev & E). apply some_if in E as [Hp E]. apply some_with in E as [Et ->].
  destruct (cgen_correct sc' ij env je (proj1 I) v sv Ev) as [Hj _].
  rewrite js_exec_switch, Hj. cbn [bind]. apply (jres_stmt G I). exact (IHk buf sc' n env je old text sv jc n' G Hp Et I DR E1).
Qed.

(* var xList = e; var xLimit = xList.length; then the loop *)
Lemma js_foreach x e body (IHb : JP_b body) hasie ie (IHi : JP_b ie) : JP_s (SFor x e body hasie ie).
Proof.
  intros buf sc n env je old text env' j sc' n' G E I DR Eg.
  apply sout_for_inv in E as (lid & l & Hx & Ev & Hsm & -> & Ht). rewrite sgen_for in Eg.
  destruct (bgen mode buf ([] :: loop_frame x (n + 1) :: sc) (n + 1) body) as [jb n1] eqn:E1.
  destruct (if hasie then bgen mode buf ([] :: sc) n1 ie else (JBNil, n1)) as [ji n2] eqn:E2. inversion Eg; subst. clear Eg.
  destruct (cgen_correct sc' ij env je (proj1 I) e _ Ev) as [Hj Hcv]. cbn [to_js] in Hj. cbn [core_value] in Hcv.
  rewrite js_exec_foreach, Hj. cbn [bind]. rewrite map_length. apply (jres_stmt G I).
  pose (vlist := jsc_name (x ++ t_list) (n + 1)).
  apply (js_loop body ie IHb IHi buf sc' n x hasie env je _ old text l jb n1 ji n' (js_item_elem vlist)
           (fun en => jvget en vlist = Some (JArr (map to_js l))) Hx G I DR E1 E2 Hsm Hcv Ht).
  - split.
    + intros je0 pre v r S0 Hl. unfold js_item_elem. rewrite S0, js_index_arr, Hl, list_index_mid. reflexivity.
    + intros je0 je1 S0 Hk. subst vlist. rewrite Hk by auto with jsnames. exact S0.
  - apply frame_set_new, frame_set_new, frame_refl.
  - do 2 rewrite (buf_set_new sc' n buf _ _ _ G). exact (proj2 I).
  - rewrite jvget_set_other by auto with jsnames. apply jvget_set.
  - apply jvget_set.
Qed.

(* var xInit = a; var xStep = st; var xLimit = Math.max(0, Math.ceil((l - xInit) / xStep)); then the loop *)
Lemma js_forrange x a1 rest body (IHb : JP_b body) hasie ie (IHi : JP_b ie) : JP_s (SForRange x a1 rest body hasie ie).
Proof.
  intros buf sc n env je old text env' j sc' n' G E I DR Eg.
  apply sout_forrange_inv in E as (zs & a & l & st & Hx & Hc & Hr & Hst & Hsd & -> & Ht). rewrite sgen_forrange in Eg.
  pose proof I as [ER Hb].
  destruct (range_args_js sc env je a1 rest zs a l st ER Hc Hr) as (ei & el & es & Hra & Hsa & Hsl & Hss & Hev). rewrite Hra in Eg.
  destruct (bgen mode buf ([] :: loop_frame x (n + 1) :: sc) (n + 1) body) as [jb n1] eqn:E1.
  destruct (if hasie then bgen mode buf ([] :: sc) n1 ie else (JBNil, n1)) as [ji n2] eqn:E2. inversion Eg; subst. clear Eg.
  destruct (range_items_facts a l st Hst Hsa Hsl Hsd) as (Hlen & Hscnt & Hcore & Helem).
  set (items := range_items (Z.to_nat (Z.max 0 (l - a))) a l st) in *.
  pose (vinit := jsc_name (x ++ t_init) (n + 1)). pose (vstep := jsc_name (x ++ t_step) (n + 1)).
  pose proof (frame_set_new buf n je je (x ++ t_init) (JNum a) (frame_refl _ _ _)) as F1.
  pose proof (frame_set_new buf n je _ (x ++ t_step) (JNum st) F1) as F2.
  rewrite js_exec_forrange, (proj1 (Hev je ER)). cbn [bind].
  rewrite (proj2 (proj2 (Hev _ (env_rel_frame buf sc' n env je _ G ER F1)))). cbn [bind].
  rewrite (proj1 (proj2 (Hev _ (env_rel_frame buf sc' n env je _ G ER F2)))). cbn [bind].
  rewrite jvget_set, jvget_set_other, jvget_set by auto with jsnames.
  unfold js_range_count. replace (st =? 0)%Z with false by (symmetry; apply Z.eqb_neq; alia). rewrite Hsd.
  rewrite ceil_div by exact Hst. fold (range_cnt a l st). unfold js_num. rewrite Hscnt. cbn [bind].
  rewrite <- Hlen, Nat2Z.id. apply (jres_stmt G I).
  apply (js_loop body ie IHb IHi buf sc' n x hasie env je _ old text items jb n1 ji n' (js_item_lin vinit vstep)
           (fun en => jvget en vinit = Some (JNum a) /\ jvget en vstep = Some (JNum st)) Hx G I DR E1 E2).
  - rewrite Hlen. exact Hscnt.
  - exact Hcore.
  - exact Ht.
  - split.
    + intros je0 pre v r [S1 S2] Hs. destruct (Helem pre v r Hs) as [-> Hb0]. unfold js_item_lin. rewrite S1, S2. unfold js_num.
      replace (small (Z.of_nat (length pre) * st)) with true
        by (symmetry; apply (small_in 0 (l - a)); [reflexivity|exact Hsd|left; alia]). cbn [bind].
      replace (small (a + Z.of_nat (length pre) * st)) with true
        by (symmetry; apply (small_in a l); [exact Hsa|exact Hsl|left; alia]). reflexivity.
    + intros je0 je1 [S1 S2] Hk. subst vinit vstep. rewrite !Hk by auto with jsnames. auto.
  - apply frame_set_new. exact F2.
  - do 3 rewrite (buf_set_new sc' n buf _ _ _ G). exact Hb.
  - split; rewrite !jvget_set_other by auto with jsnames; apply jvget_set.
  - apply jvget_set.
Qed.

Lemma js_css e sfx : JP_s (SCss e sfx).
Proof.
  intros buf sc n env je old text env' j sc' n' G E I DR Eg. rewrite sout_css in E. rewrite sgen_css in Eg. inversion Eg; subst. clear Eg.
  rewrite js_exec_css. destruct e as [x|].
  - apply some_bind in E as (v & Ev & E). apply some_bind in E as (str & Es & E). inversion E; subst. clear E.
    destruct (scalar_string_ok v str Es) as (_ & _ & Ht). destruct (cgen_correct sc' ij env' je (proj1 I) x v Ev) as [Hj _].
    rewrite Hj. cbn [bind]. rewrite Ht.
    destruct (js_append_ok buf sc' n' env' je old (str ++ [45]) G I) as (je1 & X1 & I1 & F1). rewrite X1. cbn [bind].
    destruct (js_append_ok buf sc' n' env' je1 _ sfx G I1) as (je2 & X2 & I2 & F2). rewrite <- app_assoc in I2.
    exists je2. split; [exact X2|]. split; [exact I2|exact (frame_comp _ _ _ _ _ F1 F2)].
  - inversion E; subst. clear E. cbn [bind]. exact (js_append_ok buf sc' n' env' je old text G I).
Qed.

(* the JavaScript function of a template returns the text the template writes, for every data object that holds the
   template's data and every opt_ijData that holds the injected data (if there is any) *)
Hypothesis Hjcall : forall name cenv text jd ijv, callee name cenv = Some text -> datarel cenv jd ->
  (forall v, ij = Some v -> ijv = to_js v) -> jfn name jd ijv = Ok text.

Lemma js_call name d ps : JP_p ps -> JP_s (SCall name d ps).
Proof.
  intros IHp buf sc n env je old text env' j sc' n' G E I DR Eg. rewrite sout_call in E. rewrite sgen_call in Eg.
  destruct (pgen mode sc n ps) as [jps n1] eqn:Ep0. inversion Eg; subst. clear Eg.
  apply some_bind in E as (base & Ed & E). apply some_bind in E as (cenv & Ep & E). apply some_with in E as [Ec ->].
  pose proof I as [ER Hb].
  (* the data object, whenever it is evaluated *)
  assert (Hbase : exists m, datarel base (JObj m) /\ forall je1, frame buf n je je1 ->
            match dgen sc' d with JDEmpty => Ok (JObj []) | JDOpt => Ok (je_data je1) | JDExpr e => js_eval je1 e end = Ok (JObj m)).
  { destruct d as [| |e]; cbn [cdata_env dgen] in *.
    - inversion Ed; subst. exists []. split; [apply datarel_empty|reflexivity].
    - inversion Ed; subst. destruct (datarel_obj _ _ DR) as (m & Hm). exists m. split; [rewrite <- Hm; exact DR|].
      intros je1 [D1 _]. rewrite D1, Hm. reflexivity.
    - apply some_bind in Ed as (v & Ev & Ed). destruct v as [| | | | | | |lid m]; try discriminate. apply some_if in Ed as [Hkeys Ed]. inversion Ed; subst.
      exists (map (fun kv => (fst kv, to_js (snd kv))) m).
      split; [exact (datarel_map lid m (proj2 (cgen_correct sc' ij env je ER e _ Ev)) Hkeys)|].
      intros je1 F1. exact (proj1 (cgen_correct sc' ij env je1 (env_rel_frame buf sc' n env je je1 G ER F1) e _ Ev)). }
  destruct Hbase as (m & DRb & Hbe).
  destruct (IHp buf sc' n env je old base cenv m jps n' G Ep I DR Ep0 DRb) as (je1 & vs & X1 & F1 & Hb1 & Evs & DRc).
  rewrite js_exec_call, X1. cbn [bind].
  assert (Hdv : exists dvj, js_call_data je1 (dgen sc' d) (jp_args jps) = Ok dvj /\ datarel cenv dvj).
  { unfold js_call_data. rewrite (Hbe je1 F1). cbn [bind]. destruct (jp_args jps) as [|p r] eqn:Ea.
    - cbn [js_eval_params] in Evs. inversion Evs; subst. cbn [fold_left] in DRc. eexists; split; [reflexivity|exact DRc].
    - rewrite Evs. cbn [bind js_augment]. eexists. split; [reflexivity|exact DRc]. }
  destruct Hdv as (dvj & Edv & DRd). rewrite Edv. cbn [bind].
  pose proof (jinv_frame buf sc' n env je je1 old old G I F1 Hb1) as I1.
  rewrite (Hjcall name cenv _ dvj (js_ij_arg je1) Ec DRd).
  - cbn [bind]. destruct (js_append_ok buf sc' n env je1 old text G I1) as (je2 & X2 & I2 & F2).
    exists je2. split; [exact X2|]. split; [exact I2|exact (frame_comp _ _ _ _ _ F1 F2)].
  - intros v Hv. unfold js_ij_arg. rewrite (er_ij _ _ _ _ (proj1 I1) v Hv). reflexivity.
Qed.

Lemma js_msg body : JP_b body -> JP_s (SMsg body).
Proof.
  intros IHb buf sc n env je old text env' j sc' n' G E I DR Eg. rewrite sout_msg in E. rewrite sgen_msg in Eg.
  apply some_if in E as [_ E]. apply some_with in E as [Et ->].
  destruct (bgen mode buf sc n body) as [jb n1] eqn:E1. inversion Eg; subst. clear Eg.
  rewrite js_exec_seq. apply (jres_stmt G I). exact (IHb buf sc' n env je old text jb n' G Et I DR E1).
Qed.

Lemma js_msgpl pn v q : JP_q q -> JP_s (SMsgPl pn v q).
Proof.
  intros IHq buf sc n env je old text env' j sc' n' G E I DR Eg. rewrite sout_msgpl in E. rewrite sgen_msgpl in Eg.
  destruct (qgen mode buf sc n q) as [jk n1] eqn:E1. inversion Eg; subst. clear Eg.
  apply some_bind in E as (sv & Ev & E). destruct sv as [| | |i| | | |]; try discriminate E. apply some_with in E as [Et ->].
  destruct (cgen_correct sc' ij env je (proj1 I) v (VInt i) Ev) as [Hj _].
  rewrite js_exec_plural, Hj. cbn [bind to_js]. apply (jres_stmt G I). exact (IHq buf sc' n env je old text i jk n' G Et I DR E1).
Qed.

Lemma sout_binder env s r : sout' env s = Some r -> binder_ok s.
Proof.
  destruct s; cbn [binder_ok]; auto; [rewrite sout_let|rewrite sout_letc]; intro E;
    apply some_ifn in E as [_ E]; apply some_if in E as [Hid _]; exact Hid.
Qed.

Lemma js_bcons s (IHs : JP_s s) r (IHr : JP_b r) : JP_b (BCons s r).
Proof.
  intros buf sc n env je old text jb n' G E I DR Eg. rewrite bout_cons in E. rewrite bgen_cons in Eg.
  destruct (sgen mode buf sc n s) as [j [sc1 n1]] eqn:E1. destruct (bgen mode buf sc1 n1 r) as [jr n2] eqn:E2. inversion Eg; subst. clear Eg.
  apply some_bind in E as ([a env1] & Ea & E). apply some_bind in E as (c & Ec & E). inversion E; subst. clear E.
  destruct (IHs buf sc n env je old a env1 j sc1 n1 G Ea I DR E1) as (je1 & X1 & I1 & F1).
  rewrite jb_exec_cons, X1. cbn [bind]. rewrite app_assoc.
  apply (jres_from (proj1 (sgen_mono_all mode) _ _ _ _ _ _ _ E1) F1).
  exact (IHr buf sc1 n1 env1 je1 (old ++ a) c jr n' (ginv_after _ _ _ _ _ _ _ _ (sout_binder _ _ _ Ea) E1 G) Ec I1
           (eq_ind_r (fun d => datarel denv d) DR (proj1 F1)) E2).
Qed.

Lemma js_elif c th (IHt : JP_b th) rest (IHr : JP_e rest) : JP_e (EElif c th rest).
Proof.
  intros buf sc n env je old text jl n' G E I DR Eg. rewrite eout_elif in E. rewrite egen_elif in Eg.
  destruct (bgen mode buf ([] :: sc) n th) as [jt n1] eqn:E1. destruct (egen mode buf sc n1 rest) as [jr n2] eqn:E2. inversion Eg; subst. clear Eg.
  apply some_bind in E as (v & Ev & E).
  destruct (cgen_correct sc ij env je (proj1 I) c v Ev) as [Hj Hcv].
  rewrite jl_exec_elif, Hj. cbn [bind]. rewrite truthy_js by exact Hcv.
  pose proof (bgen_mono _ _ _ _ _ _ _ E1) as Hn1. destruct (truthy v).
  - exact (JP_block th IHt buf sc n env je old text jt n1 G E I DR E1).
  - apply (jres_from Hn1 (frame_refl _ _ _)). exact (IHr buf sc n1 env je old text jr n' (ginv_mono _ _ _ _ Hn1 G) E I DR E2).
Qed.

Lemma js_kcase v vs b (IHb : JP_b b) rest (IHr : JP_k rest) : JP_k (KCase v vs b rest).
Proof.
  intros buf sc n env je old text sv jk n' G Hp E I DR Eg. rewrite kout_case in E. rewrite kgen_case in Eg.
  destruct (bgen mode buf ([] :: sc) n b) as [jb n1] eqn:E1. destruct (kgen mode buf sc n1 rest) as [jr n2] eqn:E2. inversion Eg; subst. clear Eg.
  destruct (khit ij env sv (v :: vs)) as [h|] eqn:Eh; [|discriminate].
  rewrite jk_exec_case. change (cgen sc v :: map (cgen sc) vs) with (map (cgen sc) (v :: vs)).
  rewrite (khit_js sc env je sv (v :: vs) (proj1 I) Hp h Eh). cbn [bind].
  pose proof (bgen_mono _ _ _ _ _ _ _ E1) as Hn1. destruct h.
  - exact (JP_block b IHb buf sc n env je old text jb n1 G E I DR E1).
  - apply (jres_from Hn1 (frame_refl _ _ _)). exact (IHr buf sc n1 env je old text sv jr n' (ginv_mono _ _ _ _ Hn1 G) Hp E I DR E2).
Qed.

Lemma js_pval k e r : JP_p r -> JP_p (PVal k e r).
Proof.
  intros IHr buf sc n env je old base cenv m jps n' G E I DR Eg DRb. rewrite pout_val in E. rewrite pgen_val in Eg.
  apply some_if in E as [Hk E]. apply some_bind in E as (v & Ev & E).
  destruct (pgen mode sc n r) as [jr n1] eqn:E1. inversion Eg; subst. clear Eg.
  destruct (cgen_correct sc ij env je (proj1 I) e v Ev) as [_ Hcv].
  destruct (IHr buf sc n env je old (env_set base k v) cenv (aset m k (to_js v)) jr n' G E I DR E1 (datarel_set base m k v DRb Hcv Hk))
    as (je' & vs & X & F & Hb' & Evs & Dc).
  exists je', ((k, to_js v) :: vs). split; [exact X|]. split; [exact F|]. split; [exact Hb'|]. split; [|exact Dc].
  cbn [jp_args js_eval_params]. rewrite (proj1 (cgen_correct sc ij env je' (env_rel_frame buf sc n env je je' G (proj1 I) F) e v Ev)). cbn [bind].
  rewrite Evs. reflexivity.
Qed.

(* the block runs into param_<n+1>, which still holds its text when the object literal is evaluated *)
Lemma js_pcont k body (IHb : JP_b body) r (IHr : JP_p r) : JP_p (PCont k body r).
Proof.
  intros buf sc n env je old base cenv m jps n' G E I DR Eg DRb. rewrite pout_cont in E. rewrite pgen_cont in Eg.
  apply some_if in E as [Hk E]. apply some_bind in E as (t & Et & E).
  set (g := jsc_name t_param (n + 1)) in *.
  destruct (bgen mode g ([] :: sc) (n + 1) body) as [jb n1] eqn:E1. destruct (pgen mode sc n1 r) as [jr n2] eqn:E2. inversion Eg; subst. clear Eg.
  destruct (js_capture body IHb buf sc n t_param env je old t jb n1 G Et I DR E1) as (je1 & X1 & Hg1 & I1 & F).
  rewrite jp_exec_cont. fold g in X1, Hg1. rewrite X1. cbn [bind].
  pose proof (bgen_mono _ _ _ _ _ _ _ E1) as Hn1. assert (Hn : n <= n1) by lia.
  destruct (IHr buf sc n1 env je1 old (env_set base k (VStr t)) cenv (aset m k (JStr t)) jr n' (ginv_mono sc n n1 buf Hn G) E
              I1 (eq_ind_r (fun d => datarel denv d) DR (proj1 F)) E2 (datarel_set base m k (VStr t) DRb eq_refl Hk))
    as (je' & vs & X2 & F2 & Hb2 & Evs & Dc).
  exists je', ((k, JStr t) :: vs). split; [exact X2|]. split; [exact (frame_trans _ _ _ _ _ _ Hn F F2)|]. split; [exact Hb2|]. split; [|exact Dc].
  assert (Kg : jvget je' g = Some (JStr t)).
  { rewrite <- Hg1. apply (proj2 F2); [exact (bounded_mono _ _ _ Hn1 (bounded_new _ _))|rewrite bstr_eqb_sym; apply bounded_fresh, G]. }
  cbn [jp_args js_eval_params js_eval]. fold (jvget je' g). rewrite Kg. cbn [bind]. rewrite Evs. reflexivity.
Qed.

Lemma js_qcase z b (IHb : JP_b b) r (IHr : JP_q r) : JP_q (QCase z b r).
Proof.
  intros buf sc n env je old text i jk n' G E I DR Eg. rewrite qout_case in E. rewrite qgen_case in Eg.
  destruct (bgen mode buf sc n b) as [jb n1] eqn:E1. destruct (qgen mode buf sc n1 r) as [jr n2] eqn:E2. inversion Eg; subst. clear Eg.
  rewrite jk_exec_case. cbn [jk_hit js_eval bind js_strict_eq].
  pose proof (bgen_mono _ _ _ _ _ _ _ E1) as Hn1. destruct (i =? z)%Z; cbn [bind].
  - apply some_if in E as [_ E]. exact (IHb buf sc n env je old text jb n1 G E I DR E1).
  - apply (jres_from Hn1 (frame_refl _ _ _)). exact (IHr buf sc n1 env je old text i jr n' (ginv_mono _ _ _ _ Hn1 G) E I DR E2).
Qed.

Theorem js_exec_all : (forall s, JP_s s) /\ (forall b, JP_b b) /\ (forall e, JP_e e) /\ (forall k, JP_k k) /\ (forall ps, JP_p ps) /\ (forall q, JP_q q).
Proof.
  apply cstmt_mutind.
  - exact js_raw.
  - exact js_print.
  - exact js_let.
  - exact js_letc.
  - exact js_if.
  - exact js_switch.
  - exact js_foreach.
  - exact js_forrange.
  - exact js_css.
  - exact js_call.
  - exact js_msg.
  - exact js_msgpl.
  - intros buf sc n env je old text jb n' G E I DR Eg. rewrite bout_nil in E. rewrite bgen_nil in Eg. inversion E; subst. inversion Eg; subst.
    apply jres_nil, I.
  - exact js_bcons.
  - intros buf sc n env je old text jl n' G E I DR Eg. rewrite eout_none in E. rewrite egen_none in Eg. inversion E; subst. inversion Eg; subst.
    apply jres_nil, I.
  - intros b IHb buf sc n env je old text jl n' G E I DR Eg. rewrite eout_else in E. rewrite egen_else in Eg.
    destruct (bgen mode buf ([] :: sc) n b) as [jb n1] eqn:E1. inversion Eg; subst. clear Eg.
    exact (JP_block b IHb buf sc n env je old text jb n' G E I DR E1).
  - exact js_elif.
  - intros buf sc n env je old text sv jk n' G Hp E I DR Eg. rewrite kout_none in E. rewrite kgen_none in Eg. inversion E; subst. inversion Eg; subst.
    apply jres_nil, I.
  - intros b IHb buf sc n env je old text sv jk n' G Hp E I DR Eg. rewrite kout_default in E. rewrite kgen_default in Eg.
    destruct (bgen mode buf ([] :: sc) n b) as [jb n1] eqn:E1. inversion Eg; subst. clear Eg.
    exact (JP_block b IHb buf sc n env je old text jb n' G E I DR E1).
  - exact js_kcase.
  - intros buf sc n env je old base cenv m jps n' G E I DR Eg DRb. rewrite pout_nil in E. rewrite pgen_nil in Eg. inversion E; subst. inversion Eg; subst.
    exists je, []. split; [reflexivity|]. split; [apply frame_refl|]. split; [apply I|]. split; [reflexivity|exact DRb].
  - exact js_pval.
  - exact js_pcont.
  - intros b IHb buf sc n env je old text i jk n' G E I DR Eg. rewrite qout_dflt in E. rewrite qgen_dflt in Eg.
    apply some_if in E as [_ E]. destruct (bgen mode buf sc n b) as [jb n1] eqn:E1. inversion Eg; subst. clear Eg.
    exact (IHb buf sc n env je old text jb n' G E I DR E1).
  - exact js_qcase.
Qed.
End JsStmts.
