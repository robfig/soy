(* Source tie, family 80-gotrans-registry, template/registry.go: Registry.LineNumber / ColNumber / Filename as the
   render-time error path uses them (Model/InterpSafety.v reg_line, reg_file; Model/Interp.v line_number), against the
   methods as gotrans translates them from the source of the tree under check.  node.Position() enters the translation as the parameter
   m_node_Position (the AST node is immutable).  The guard keeps Go's int addition from wrapping (a template source
   below 2^62 bytes). *)
From Coq Require Import ZArith NArith Bool Lia ZifyBool List.
From Soy Require Import Model.Bytes Model.Outcome Model.Ast Generated.Tables Model.Interp Model.InterpSafety Spec.ErrPos
  Proofs.BytesBase Proofs.SourceTieBase Proofs.SourceTieErrPos.
Import ListNotations.
Open Scope N_scope.

Lemma st_assoc_has {A} (k : bstr) (l : list (bstr * A)) :
  go_has_s k l = match assoc_s k l with Some _ => true | None => false end.
Proof. reflexivity. Qed.

(* LineNumber: 0 for an unknown template (log and return), the line of the position otherwise; a position beyond the
   text panics (slice bounds out of range) *)
Theorem reg_line_matches_source (reg : registry) (name : bstr) (pos : N) :
  (forall src, assoc_s name (r_sources reg) = Some src -> (Z.of_nat (length src) < 2 ^ 62)%Z) ->
  reg_line reg name pos =
  match src_template_Registry_LineNumber (Z.of_N pos) (r_sources reg) name with
  | Some l => Ok (Z.to_N l)
  | None => Crash e_slice
  end.
Proof.
  intros Hlen. unfold reg_line, src_template_Registry_LineNumber. autounfold with src_helpers.
  (* (a helper that looks the source up and cuts it, if the method has one, is opened by the line above) *)
  unfold go_lookup_s, go_has_s. cbv zeta.
  destruct (assoc_s name (r_sources reg)) as [src|] eqn:E; [|reflexivity].
  specialize (Hlen src eq_refl). cbn [negb]. unfold line_number.
  destruct (N.leb_spec pos (N.of_nat (length src))) as [Hp|Hp].
  - rewrite (go_slice_prefix src pos Hp). cbn [go_bind negb]. rewrite go_count_byte_nl.
    pose proof (count_nl_le (take (N.to_nat pos) src)) as H1.
    pose proof (st_take_length_le (N.to_nat pos) src) as H2.
    rewrite go_wrap_s_id; [f_equal; lia|lia|].
    change (2 ^ (64 - 1))%Z with 9223372036854775808%Z.
    change (2 ^ 62)%Z with 4611686018427387904%Z in Hlen. lia.
  - rewrite (go_slice_prefix_out src pos Hp). reflexivity.
Qed.

(* Filename: "" for an unknown template *)
Theorem reg_file_matches_source (reg : registry) (name : bstr) :
  reg_file reg name = src_template_Registry_Filename (r_files reg) name.
Proof.
  unfold reg_file, src_template_Registry_Filename, go_lookup_s, go_has_s. cbv zeta.
  destruct (assoc_s name (r_files reg)); reflexivity.
Qed.

(* ColNumber takes the same slice as LineNumber: it panics exactly when LineNumber does (the model's err_from_node keeps
   only that: "same slice as LineNumber") and answers 0 for an unknown template *)
Theorem reg_col_panics_like_line_matches_source (reg : registry) (name : bstr) (pos : N) :
  match src_template_Registry_ColNumber (Z.of_N pos) (r_sources reg) name,
        src_template_Registry_LineNumber (Z.of_N pos) (r_sources reg) name with
  | Some _, Some _ => True
  | None, None => True
  | _, _ => False
  end.
Proof.
  unfold src_template_Registry_ColNumber, src_template_Registry_LineNumber. autounfold with src_helpers.
  unfold go_lookup_s, go_has_s. cbv zeta.
  destruct (assoc_s name (r_sources reg)); cbn [negb go_bind]; [|exact I].
  destruct (go_slice _ 0%Z (Z.of_N pos)); cbn [negb go_bind]; exact I.
Qed.

(* Model/Interp.v's [render] computes rr_line through line_number on the recorded source of the failing template: the
   same function, for a registry that records [src] under [name] *)
Theorem line_number_matches_source (name src : bstr) (more : list (bstr * bstr)) (pos : N) :
  (Z.of_nat (length src) < 2 ^ 62)%Z ->
  line_number src pos =
  match src_template_Registry_LineNumber (Z.of_N pos) ((name, src) :: more) name with
  | Some l => Some (Z.to_N l)
  | None => None
  end.
Proof.
  intros Hlen.
  pose proof (reg_line_matches_source {| r_templates := []; r_sources := (name, src) :: more; r_files := [] |} name pos) as H.
  cbn [r_sources] in H. unfold reg_line in H. cbn [r_sources assoc_s] in H. rewrite bstr_eqb_refl in H.
  assert (Hg : forall s0 : bstr, Some src = Some s0 -> (Z.of_nat (length s0) < 2 ^ 62)%Z) by (intros s0 E; injection E as <-; exact Hlen).
  specialize (H Hg).
  destruct (src_template_Registry_LineNumber (Z.of_N pos) ((name, src) :: more) name) as [l|];
    destruct (line_number src pos); try discriminate; try reflexivity.
  injection H as ->. reflexivity.
Qed.
