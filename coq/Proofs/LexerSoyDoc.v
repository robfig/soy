(* Progress lemma for lexSoyDoc (with lexSoyDocParam).  The loop's own measure is
   2 * remaining + [startOfLine]: the iteration that meets the first character of a line steps
   back over it (`l.pos--`) and clears startOfLine; the next iteration consumes it. *)
From Soy Require Import Model.Bytes Model.Utf8 Model.Outcome Model.Token Generated.Tables Model.Lexer Proofs.LexerPrim Proofs.LexerStates.
From Coq Require Import ZifyBool Lia.
Open Scope Z_scope.
Definition sd_budget (sol : bool) : Z := if sol then 11 else 10.

Section SoyDoc.
Variable inp : bstr.
Notation ilen := (Z.of_nat (length inp)).
Variable base : Z.
Hypothesis base_nonneg : 0 <= base.
Notation inv := (inv inp base).
Notation loop_post := (loop_post inp base).
Notation lim := (Z.to_N (base + ilen)).

Lemma soydoc_space_loop_ok fuel l : 0 <= l_pos l <= ilen -> (Z.to_nat (ilen - l_pos l) < fuel)%nat ->
  okp (soydoc_space_loop inp ilen fuel l) (scan_post inp l).
Proof.
  apply (scan_loop_spec inp (fun r => negb ((r =? eof) || negb (gen_isSpace r))) (soydoc_space_loop inp ilen)); [reflexivity|].
  intros f l0. cbn [soydoc_space_loop]. destruct (next inp ilen l0) as [[r l1]| | | | |]; try reflexivity.
  cbn [bind]. destruct ((r =? eof) || negb (gen_isSpace r)); reflexivity.
Qed.

(* after the parameter name: everything so far is emitted or ignored *)
Definition sd_ident_post (k : Z) (l l' : lx) : Prop :=
  (0 <= l_start l' /\ l_start l' = l_pos l' /\ l_pos l <= l_pos l' <= ilen /\
   l_ticks l <= l_ticks l' <= l_ticks l + (l_pos l' - l_pos l) + k) /\ items_ok lim false (l_out l').

Lemma soydoc_ident_loop_ok fuel : forall l, wf inp l -> items_ok lim false (l_out l) -> (Z.to_nat (ilen - l_pos l) < fuel)%nat ->
  okp (soydoc_ident_loop inp ilen base fuel l) (sd_ident_post 1 l).
Proof.
  induction fuel as [|f IH]; intros l Hw Hit Hf; [lia|]. cbn [soydoc_ident_loop]. hstep.
  apply okp_if; intros E.
  - eapply okp_weaken; [apply emit_plain; [reflexivity|arith|assumption]|]. intros l2 (it & -> & Hi). split; [arith|exact Hi].
  - apply okp_if; intros E2.
    + apply isSpaceEOL_nonneg in E2. hstep. cbv zeta. destruct (gen_isSpace _); (split; [arith|assumption]).
    + eapply okp_weaken; [apply IH; [arith|assumption|arith]|]. intros l2 (H2 & Hi). lcbn in H2. split; [arith|exact Hi].
Qed.

(* the rest of lexSoyDocParam once `@param ` or `@param? ` is sent: white space, then the name *)
Lemma soydoc_param_name_ok l : wf inp l -> items_ok lim false (l_out l) ->
  okp (l4 <- soydoc_space_loop inp ilen (loop_fuel ilen l) l ;;
       let l5 := ignore (backup l4) in
       soydoc_ident_loop inp ilen base (loop_fuel ilen l5) l5) (sd_ident_post 2 l).
Proof.
  intros Hw Hit.
  eapply okp_bind; [apply soydoc_space_loop_ok; [arith|apply loop_fuel_ok; arith]|]. intros l4 (p & w & t & -> & H4). cbv zeta.
  eapply okp_weaken; [apply soydoc_ident_loop_ok; [arith|assumption|apply loop_fuel_ok; arith]|].
  intros l' (H' & Hi). lcbn in H'. split; [arith|exact Hi].
Qed.

Lemma kw_prefix_len (tl : bstr) : is_prefix soydoc_param_kw tl = true -> soydoc_kw_len <= Z.of_nat (length tl).
Proof. intros H. apply is_prefix_length in H. unfold soydoc_kw_len. lia. Qed.

Definition sd_param_post (l l' : lx) : Prop :=
  (0 <= l_start l' <= l_pos l' /\ l_pos l + soydoc_kw_len <= l_pos l' <= ilen /\
   l_ticks l <= l_ticks l' <= l_ticks l + (l_pos l' - l_pos l) + 6) /\ items_ok lim false (l_out l').

Lemma lex_soydoc_param_ok l : 0 <= l_start l <= l_pos l /\ l_pos l + soydoc_kw_len <= ilen ->
  items_ok lim false (l_out l) ->
  okp (lex_soydoc_param inp ilen base l) (sd_param_post l).
Proof.
  intros Hw Hit. unfold lex_soydoc_param, sd_param_post.
  assert (Hk : 0 <= soydoc_kw_len) by (unfold soydoc_kw_len; lia).
  set (kw := soydoc_kw_len) in *. cbv zeta. hstep.
  apply okp_bind_if; intros E; [apply okp_assoc; hstep; apply okp_bind_if; intros E2|apply okp_bind_if; intros E2].
  1, 4: cbn [bind okp]; split; [arith|assumption].
  all: apply okp_assoc; hstep; cbn [bind]; (eapply okp_weaken; [apply soydoc_param_name_ok; [arith|assumption]|]);
    intros l' (H' & Hi); lcbn in H'; (split; [arith|exact Hi]).
Qed.

Lemma soydoc_loop_ok fuel : forall star (sol : bool) l, wf inp l -> items_ok lim false (l_out l) ->
  2 * (ilen - l_pos l) + Z.b2z sol < Z.of_nat fuel ->
  okp (soydoc_loop inp ilen base fuel star sol l) (loop_post (sd_budget sol) l).
Proof.
  induction fuel as [|f IH]; intros star sol l Hw Hit Hf; [arith|].
  (* the tail shared by both cases: after an end-of-line character the next line starts *)
  assert (Hrest : forall ch l2 (sol2 : bool), items_ok lim false (l_out l2) ->
            wf inp l2 /\ (gen_isEndOfLine ch = false -> sol2 = false) /\
            2 * (ilen - l_pos l2) + Z.b2z (gen_isEndOfLine ch) < Z.of_nat f /\
            l_ticks l2 + 40 * (ilen - l_pos l2) + 10 + Z.b2z (gen_isEndOfLine ch) <= l_ticks l + 40 * (ilen - l_pos l) + sd_budget sol /\
            l_ticks l <= l_ticks l2 ->
            okp (r <- (if gen_isEndOfLine ch then l3 <- maybe_emit_text inp ilen base l2 1 ;; Ok (l3, true) else Ok (l2, sol2)) ;;
                 soydoc_loop inp ilen base f (ch =? 42) (snd r) (fst r)) (loop_post (sd_budget sol) l)).
  { clear Hw Hit Hf. intros ch l2 sol2 Hit2 H2. apply okp_bind_if; intros E3; rewrite E3 in H2; cbn [Z.b2z] in H2.
    - apply okp_assoc. hstep. cbn [bind fst snd].
      eapply okp_weaken; [apply IH; [arith|assumption|arith]|intros ?; apply loop_post_mono; cbn [sd_budget]; arith].
    - cbn [bind fst snd]. destruct H2 as (? & Hs2 & ?). rewrite (Hs2 eq_refl).
      eapply okp_weaken; [apply IH; [arith|assumption|arith]|intros ?; apply loop_post_mono; cbn [sd_budget]; arith]. }
  assert (Hlow : 10 <= sd_budget sol) by (destruct sol; cbn; lia).
  cbn [soydoc_loop].
  eapply okp_bind; [apply next_read; arith|]. intros [ch l1] (w & -> & H). unfold read in H.
  apply okp_if; intros E; [land|].
  apply okp_if; intros E2; [hstep; hstep; land|].
  apply okp_if; intros Es; subst sol; cbn [sd_budget Z.b2z] in *; [|apply Hrest; [assumption|destruct (gen_isEndOfLine ch); arith]].
  apply okp_if; intros E3; [apply isSpaceEOL_nonneg in E3; eapply okp_weaken; [apply IH; [arith|assumption|arith]|intros ?; apply loop_post_mono; cbn [sd_budget]; arith]|].
  apply okp_if; intros E4; [eapply okp_weaken; [apply IH; [arith|assumption|arith]|intros ?; apply loop_post_mono; cbn [sd_budget]; arith]|].
  (* the first character of a line that is neither white space nor `*`: stepped back over and
     read again with startOfLine cleared; it is not an end-of-line character *)
  unfold gen_isSpaceEOL in E3. apply Bool.orb_false_iff in E3. destruct E3 as [_ E3].
  assert (Hk : 1 <= soydoc_kw_len) by (vm_compute; discriminate).
  hstep. apply okp_bind_if; intros E5.
  - apply kw_prefix_len in E5.
    eapply okp_bind; [apply lex_soydoc_param_ok; [arith|assumption]|]. intros l3 (H3 & Hi3). lcbn in H3.
    apply Hrest; [assumption|rewrite E3; arith].
  - cbn [bind]. apply Hrest; [assumption|rewrite E3; arith].
Qed.

Lemma lex_soydoc_ok l : inv LSoyDoc l -> okp (lex_soydoc inp ilen base l) (loop_post 12 l).
Proof.
  intros ((Hs & Hp) & Hit & _). unfold lex_soydoc. hstep.
  eapply okp_weaken; [apply (soydoc_loop_ok _ false true); [arith|assumption|unfold soydoc_fuel; arith]|].
  intros ?. apply loop_post_mono. cbn [sd_budget]. arith.
Qed.


End SoyDoc.
