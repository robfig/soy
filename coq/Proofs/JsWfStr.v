(* C14, token grammar: a string literal as soyjs writes it -- quote, JSEscape
   of ANY byte string, quote -- is read by the byte lexer of Spec/JsSyntax.v as
   exactly one string token, and the lexer is back in normal mode right after
   the closing quote: no template string can end its literal early or swallow
   what follows it.  No guard on the string (valid UTF-8 or not, astral or
   not). *)
From Soy Require Import Model.Bytes Model.Utf8 Model.Directives Model.JsEscape Model.JsGen Spec.JsSyntax
  Proofs.Utf8Proofs Proofs.CodecProofs Proofs.CodecJsPair.
From Coq Require Import ZifyBool Lia.
Open Scope N_scope.

Section Str.
Variable is_print : N -> bool.
Variable q : N.
Hypothesis Hq : q = 39 \/ q = 34.

Lemma str_plain c X : c <> q -> c <> 92 -> 32 <= c -> lex_text 0 (LStr q) (c :: X) = lex_text 0 (LStr q) X.
Proof.
  intros H1 H2 H3. cbn [lex_text].
  replace (c =? q) with false by (symmetry; apply N.eqb_neq; exact H1).
  replace (c =? 92) with false by (symmetry; apply N.eqb_neq; exact H2).
  replace (c <? 32) with false by (symmetry; apply N.ltb_ge; exact H3). reflexivity.
Qed.

Lemma str_plains l X : Forall (fun c => c <> q /\ c <> 92 /\ 32 <= c) l -> lex_text 0 (LStr q) (l ++ X) = lex_text 0 (LStr q) X.
Proof. induction 1 as [|c l (H1 & H2 & H3) _ IH]; [reflexivity|]. cbn [app]. rewrite str_plain by assumption. exact IH. Qed.

(* One step of the lexer inside a string literal, each over a variable tail: unfolding lex_text over several
   known bytes at once would also unfold every branch of the modes passed through. *)
Lemma str_backslash X : lex_text 0 (LStr q) (92 :: X) = lex_text 0 (LEsc q) X.
Proof. cbn [lex_text]. replace (92 =? q) with false by (destruct Hq; subst; reflexivity). reflexivity. Qed.

Lemma esc_u X : lex_text 0 (LEsc q) (117 :: X) = lex_text 0 (LHex q 4) X.
Proof. reflexivity. Qed.

Lemma hex_more k h X : is_hex h = true -> lex_text 0 (LHex q (S (S k))) (h :: X) = lex_text 0 (LHex q (S k)) X.
Proof. intro H. cbn [lex_text]. rewrite H. reflexivity. Qed.

Lemma hex_last h X : is_hex h = true -> lex_text 0 (LHex q 1) (h :: X) = lex_text 0 (LStr q) X.
Proof. intro H. cbn [lex_text]. rewrite H. reflexivity. Qed.

Lemma str_esc1 e X : e = 92 \/ e = 39 \/ e = 34 -> lex_text 0 (LStr q) (92 :: e :: X) = lex_text 0 (LStr q) X.
Proof. intros He. rewrite str_backslash. destruct He as [->|[->| ->]]; reflexivity. Qed.

Lemma is_hex_hexdigit n : n < 16 -> is_hex (hexdigit n) = true.
Proof. intro H. unfold is_hex, is_digit, hexdigit. destruct (n <? 10) eqn:E; lia. Qed.

Lemma str_u4 h1 h2 h3 h4 X : is_hex h1 = true -> is_hex h2 = true -> is_hex h3 = true -> is_hex h4 = true ->
  lex_text 0 (LStr q) (92 :: 117 :: h1 :: h2 :: h3 :: h4 :: X) = lex_text 0 (LStr q) X.
Proof.
  intros H1 H2 H3 H4. rewrite str_backslash, esc_u, !hex_more, hex_last by assumption. reflexivity.
Qed.

Lemma hexdigit_plain n : n < 16 -> hexdigit n <> q /\ hexdigit n <> 92 /\ 32 <= hexdigit n.
Proof. intro H. unfold hexdigit. destruct (n <? 10) eqn:E; destruct Hq; subst; lia. Qed.

Lemma str_hex4 x X : lex_text 0 (LStr q) ((92 :: 117 :: hex4 x) ++ X) = lex_text 0 (LStr q) X.
Proof. unfold hex4. cbn [app]. apply str_u4; apply is_hex_hexdigit; apply N.mod_upper_bound; lia. Qed.

(* the scan of the escaped body ends at the closing quote, whatever follows: for the escaper soy calls
   (Model/JsEscape.v js_escape_soy), with the surrogate-pair form of internal/jsescape or without it *)
Variable pair : bool.
Lemma str_scan_soy s : forall k rest,
  lex_text 0 (LStr q) (js_escape_soy_aux pair is_print k s ++ q :: rest)
  = option_map (fun '(ts, m) => (TStr :: ts, m)) (lex_text 0 LNormal rest).
Proof.
  induction s as [|c r IH]; intros k rest.
  - cbn [js_escape_soy_aux app lex_text]. rewrite N.eqb_refl. reflexivity.
  - cbn [js_escape_soy_aux]. destruct k as [|k]; [|apply IH].
    destruct (c <? 128) eqn:E128.
    + unfold js_ascii_escape.
      destruct (c =? 92) eqn:E1; [cbn [app]; rewrite str_esc1 by auto; apply IH|].
      destruct (c =? 39) eqn:E2; [cbn [app]; rewrite str_esc1 by auto; apply IH|].
      destruct (c =? 34) eqn:E3; [cbn [app]; rewrite str_esc1 by auto; apply IH|].
      destruct (c =? 60) eqn:E4; [cbn [app]; rewrite str_u4 by reflexivity; apply IH|].
      destruct (c =? 62) eqn:E5; [cbn [app]; rewrite str_u4 by reflexivity; apply IH|].
      destruct (c =? 38) eqn:E6; [cbn [app]; rewrite str_u4 by reflexivity; apply IH|].
      destruct (c =? 61) eqn:E7; [cbn [app]; rewrite str_u4 by reflexivity; apply IH|].
      destruct (c <? 32) eqn:E8.
      * cbn [app]. rewrite str_u4; [apply IH|reflexivity|reflexivity|apply is_hex_hexdigit|apply is_hex_hexdigit].
        -- apply N.div_lt_upper_bound; lia.
        -- apply N.mod_upper_bound. lia.
      * cbn [app]. rewrite str_plain; [apply IH| | |]; destruct Hq; subst; lia.
    + rewrite <- app_assoc. unfold js_rune_piece_soy. destruct (decode_rune (c :: r)) as [ru w] eqn:Hd.
      destruct (is_print ru); [|destruct (pair && (65536 <=? ru))].
      * rewrite str_plains; [apply IH|].
        eapply Forall_impl; [|eapply decode_rune_take_high; [exact Hd|exists c, r; split; [reflexivity|lia]]].
        cbn. intros a Ha. destruct Hq; subst; lia.
      * rewrite <- app_assoc. rewrite !str_hex4. apply IH.
      * unfold fmt_04X, hex4.
        assert (Hm : forall x, is_hex (hexdigit (x mod 16)) = true) by (intro x; apply is_hex_hexdigit; apply N.mod_upper_bound; lia).
        assert (Hp : forall x, hexdigit (x mod 16) <> q /\ hexdigit (x mod 16) <> 92 /\ 32 <= hexdigit (x mod 16)) by (intro x; apply hexdigit_plain; apply N.mod_upper_bound; lia).
        destruct (ru <? 65536); [|destruct (ru <? 1048576)]; cbn [app].
        -- rewrite str_u4 by apply Hm. apply IH.
        -- rewrite str_u4 by apply Hm. destruct (Hp ru) as (P1 & P2 & P3). rewrite str_plain by assumption. apply IH.
        -- rewrite str_u4 by apply Hm. destruct (Hp (ru / 16)) as (P1 & P2 & P3). destruct (Hp ru) as (P4 & P5 & P6).
           rewrite str_plain by assumption. rewrite str_plain by assumption. apply IH.
Qed.

End Str.

Section StrLib.
Variable is_print : N -> bool.
Variable q : N.
Hypothesis Hq : q = 39 \/ q = 34.
(* text/template's escaper is the case pair = false (for the second branch of strlit_one_token's last step: a
   render_chunk that names the library's js_escape; Model/JsGen.v's names js_escape_soy, the first branch) *)
Lemma str_scan s k rest :
  lex_text 0 (LStr q) (js_escape_aux is_print k s ++ q :: rest)
  = option_map (fun '(ts, m) => (TStr :: ts, m)) (lex_text 0 LNormal rest).
Proof. rewrite <- js_escape_soy_false_aux. apply (str_scan_soy is_print q Hq). Qed.

(* a rendered string literal chunk, followed by anything: one string token, then the rest in normal mode *)
Theorem strlit_one_token s rest :
  lex_text 0 LNormal (render_chunk is_print (CStrLit q s) ++ rest)
  = option_map (fun '(ts, m) => (TStr :: ts, m)) (lex_text 0 LNormal rest).
Proof.
  cbn [render_chunk app]. rewrite <- app_assoc. cbn [app lex_text].
  replace (is_space q) with false by (destruct Hq; subst; reflexivity).
  replace ((q =? 39) || (q =? 34)) with true by (destruct Hq; subst; reflexivity).
  first [apply (str_scan_soy is_print q Hq) | apply str_scan].
Qed.
End StrLib.
