(* Big-step rules for the expression parser model (Model/ExprParser.v) on token lists.

   [stream st] is the list of items the parser state will deliver next; every judgment below
   says: from any state with this stream, the procedure returns this node and leaves that
   stream, for every sufficiently large fuel.  Each rule is a lemma proved from the model's
   definitions (success paths only); Proofs/ExprParserProofs.v builds the round-trip theorems
   from the rules alone. *)
From Soy Require Import Model.Bytes Model.Num Model.Values Model.Ast Model.Token Model.NumLit Model.Quote Model.ExprParser Generated.Tables.
From Soy Require Proofs.NumLitProofs.
Require Import Lia ZifyBool.
Open Scope N_scope.

Definition stream (st : pst) : list tok :=
  match p_peek st with
  | O => p_rest st
  | S O => p_tok0 st :: p_rest st
  | _ => p_tok1 st :: p_tok0 st :: p_rest st
  end.
Definition inv (st : pst) : Prop := (p_peek st <= 2)%nat.

Lemma stream_init ts : stream (pst_init ts) = ts /\ inv (pst_init ts).
Proof. split; [reflexivity | unfold inv; cbn; lia]. Qed.

(* the state delivers ts next *)
Definition feeds (st : pst) (ts : list tok) : Prop := stream st = ts /\ inv st.
(* the state has just delivered u (so at most one item is pushed back) and delivers rest next:
   backed up, it delivers u again *)
Definition fed (st : pst) (u : tok) (rest : list tok) : Prop :=
  feeds st rest /\ feeds (p_backup st) (u :: rest) /\ (p_peek st <= 1)%nat.

Lemma next_feeds st t l : feeds st (t :: l) -> exists st1, p_next st = (t, st1) /\ fed st1 t l.
Proof.
  destruct st as [rest t0 t1 pk rc]. unfold fed, feeds, stream, inv, p_next, p_backup, recv. cbn [p_peek p_rest p_tok0 p_tok1 p_recv].
  intros [Hs Hi]. destruct pk as [|[|[|pk]]]; [| | |lia].
  - subst rest. eexists; split; [reflexivity|]. cbn. repeat split; lia.
  - inversion Hs; subst. eexists; split; [reflexivity|]. cbn. repeat split; lia.
  - inversion Hs; subst. eexists; split; [reflexivity|]. cbn. repeat split; lia.
Qed.

Lemma next_spec st t l : stream st = t :: l -> inv st ->
  exists st1, p_next st = (t, st1) /\ stream st1 = l /\ inv st1 /\
              stream (p_backup st1) = t :: l /\ inv (p_backup st1).
Proof.
  intros Hs Hi. destruct (next_feeds st t l (conj Hs Hi)) as (st1 & Hn & [H1 H2] & [H3 H4] & _). exists st1. auto.
Qed.

Lemma peek_spec st t l : stream st = t :: l -> inv st ->
  exists st1, p_peek_tok st = (t, st1) /\ stream st1 = t :: l /\ inv st1.
Proof.
  destruct st as [rest t0 t1 pk rc]. unfold stream, inv, p_peek_tok, recv. cbn [p_peek p_rest p_tok0 p_tok1 p_recv].
  intros Hs Hi. destruct pk as [|[|[|pk]]]; [| | |lia].
  - subst rest. eexists; split; [reflexivity|]. cbn. repeat split; lia.
  - inversion Hs; subst. eexists; split; [reflexivity|]. cbn. repeat split; lia.
  - inversion Hs; subst. eexists; split; [reflexivity|]. cbn. repeat split; lia.
Qed.

Lemma peek_feeds st t l : feeds st (t :: l) -> exists st1, p_peek_tok st = (t, st1) /\ feeds st1 (t :: l).
Proof. intros [Hs Hi]. destruct (peek_spec _ _ _ Hs Hi) as (st1 & Hn & H). exists st1. unfold feeds. tauto. Qed.

Definition ok2 {A} (r : nat -> nat -> presult A) (a : A) (rest : list tok) : Prop :=
  exists st', stream st' = rest /\ inv st' /\
    exists f0, forall f lf, (f0 <= f)%nat -> (f0 <= lf)%nat -> r f lf = POk a st'.

Definition on_stream (ts : list tok) (P : pst -> Prop) : Prop :=
  forall st, stream st = ts -> inv st -> P st.

Definition W (f : nat) : N -> pst -> presult node := parse_expr f.

Definition Parses (p : N) (ts : list tok) (n : node) (rest : list tok) : Prop :=
  on_stream ts (fun st => ok2 (fun f _ => parse_expr f p st) n rest).
Definition Loops (p : N) (acc : node) (ts : list tok) (n : node) (rest : list tok) : Prop :=
  on_stream ts (fun st => ok2 (fun f lf => expr_loop (W f) lf p acc st) n rest).
Definition First (ts : list tok) (n : node) (rest : list tok) : Prop :=
  on_stream ts (fun st => ok2 (fun f lf => parse_first_term (W f) lf st) n rest).
Definition Value (t : tok) (ts : list tok) (n : node) (rest : list tok) : Prop :=
  on_stream ts (fun st => ok2 (fun f lf => new_value_node (W f) lf t st) n rest).
Definition RefLoop (p : N) (key : bstr) (acc : list node) (ts : list tok) (n : node) (rest : list tok) : Prop :=
  on_stream ts (fun st => ok2 (fun f lf => data_ref_loop (W f) lf p key acc st) n rest).
Definition LLoop (p : N) (items : list node) (ts : list tok) (n : node) (rest : list tok) : Prop :=
  on_stream ts (fun st => ok2 (fun f lf => list_loop (W f) lf p items st) n rest).
Definition MLoop (p : N) (items : list (bstr * node)) (key : bstr) (ts : list tok) (n : node) (rest : list tok) : Prop :=
  on_stream ts (fun st => ok2 (fun f lf => map_loop (W f) lf p items key st) n rest).
Definition ListOrMap (t : tok) (ts : list tok) (n : node) (rest : list tok) : Prop :=
  on_stream ts (fun st => ok2 (fun f lf => parse_list_or_map (W f) lf t st) n rest).
Definition GStep (p : N) (name : bstr) (ts : list tok) (n : node) (rest : list tok) : Prop :=
  on_stream ts (fun st => ok2 (fun f lf => let '(nx, st1) := p_next st in global_loop lf p name nx st1) n rest).
Definition FLoop (p : N) (name : bstr) (args : list node) (ts : list tok) (n : node) (rest : list tok) : Prop :=
  on_stream ts (fun st => ok2 (fun f lf => func_loop (W f) lf p name args st) n rest).
Definition Func (t : tok) (ts : list tok) (n : node) (rest : list tok) : Prop :=
  on_stream ts (fun st => ok2 (fun f lf => new_function_node (W f) lf t st) n rest).
Definition DArgs (args : list node) (ts : list tok) (args' : list node) (rest : list tok) : Prop :=
  on_stream ts (fun st => ok2 (fun f lf => directive_args_loop (W f) lf args st) args' rest).
Definition PLoop (p : N) (e : node) (dirs : list node) (ts : list tok) (n : node) (rest : list tok) : Prop :=
  on_stream ts (fun st => ok2 (fun f lf => print_loop (W f) lf p e dirs st) n rest).
Definition ParsesPrint (p : N) (ts : list tok) (n : node) (rest : list tok) : Prop :=
  on_stream ts (fun st => ok2 (fun f _ => parse_print f p st) n rest).

Lemma on_feeds ts (P : pst -> Prop) : (forall st, feeds st ts -> P st) -> on_stream ts P.
Proof. intros H st Hs Hi. apply H. split; assumption. Qed.
Lemma feeds_on ts (P : pst -> Prop) st : on_stream ts P -> feeds st ts -> P st.
Proof. intros H [Hs Hi]. exact (H st Hs Hi). Qed.
Arguments feeds_on {ts P st}.

Lemma ok2_ret {A} (a : A) st rest : feeds st rest -> ok2 (fun _ _ => POk a st) a rest.
Proof. intros [Hs Hi]. exists st. split; [exact Hs|]. split; [exact Hi|]. exists 0%nat. reflexivity. Qed.

Lemma ok2_ext {A} (r r' : nat -> nat -> presult A) a rest : (forall f lf, r f lf = r' f lf) -> ok2 r' a rest -> ok2 r a rest.
Proof.
  intros E (st' & Hs & Hi & f0 & E'). exists st'. split; [exact Hs|]. split; [exact Hi|]. exists f0. intros. rewrite E. apply E'; assumption.
Qed.

(* x, then the rest of the procedure in the state x leaves *)
Lemma ok2_bind {A B} (x : nat -> nat -> presult A) (K : A -> pst -> nat -> nat -> presult B) a l1 b rest :
  ok2 x a l1 -> (forall st1, feeds st1 l1 -> ok2 (K a st1) b rest) ->
  ok2 (fun f lf => pbind (x f lf) (fun a' st' => K a' st' f lf)) b rest.
Proof.
  intros (st1 & Hs1 & Hi1 & f1 & E1) HK. destruct (HK st1 (conj Hs1 Hi1)) as (st' & Hs' & Hi' & f2 & E2).
  exists st'. split; [exact Hs'|]. split; [exact Hi'|]. exists (max f1 f2). intros f lf Hf Hlf.
  rewrite E1 by lia. apply E2; lia.
Qed.

Lemma ok2_next {B} (K : tok -> pst -> nat -> nat -> presult B) st t l b rest :
  feeds st (t :: l) -> (forall st1, fed st1 t l -> ok2 (K t st1) b rest) ->
  ok2 (fun f lf => let '(x, st1) := p_next st in K x st1 f lf) b rest.
Proof. intros H HK. destruct (next_feeds _ _ _ H) as (st1 & -> & H1). apply HK, H1. Qed.

Lemma ok2_peek {B} (K : tok -> pst -> nat -> nat -> presult B) st t l b rest :
  feeds st (t :: l) -> (forall st1, feeds st1 (t :: l) -> ok2 (K t st1) b rest) ->
  ok2 (fun f lf => let '(x, st1) := p_peek_tok st in K x st1 f lf) b rest.
Proof. intros H HK. destruct (peek_feeds _ _ _ H) as (st1 & -> & H1). apply HK, H1. Qed.

(* t.expect on a stream whose head has the expected type *)
Lemma ok2_expect typ st t l : (t_typ t =? typ) = true -> feeds st (t :: l) -> ok2 (fun _ _ => p_expect typ st) t l.
Proof.
  intros Ht H. unfold p_expect. apply ok2_next with (1 := H). intros st1 [H1 _]. rewrite Ht. apply ok2_ret, H1.
Qed.
Arguments ok2_expect {typ st t l}.

(* one more unit of a budget, to unfold a loop; a loop that its caller runs on the recursion budget *)
Lemma ok2_Sf {A} (r : nat -> nat -> presult A) a rest : ok2 (fun f lf => r (S f) lf) a rest -> ok2 r a rest.
Proof.
  intros (st' & Hs & Hi & f0 & E). exists st'. split; [exact Hs|]. split; [exact Hi|]. exists (S f0).
  intros [|f] lf Hf Hlf; [lia|]. apply E; lia.
Qed.
Lemma ok2_Slf {A} (r : nat -> nat -> presult A) a rest : ok2 (fun f lf => r f (S lf)) a rest -> ok2 r a rest.
Proof.
  intros (st' & Hs & Hi & f0 & E). exists st'. split; [exact Hs|]. split; [exact Hi|]. exists (S f0).
  intros f [|lf] Hf Hlf; [lia|]. apply E; lia.
Qed.
Lemma ok2_lf_S {A} (r : nat -> nat -> presult A) a rest : ok2 r a rest -> ok2 (fun f lf => r f (S lf)) a rest.
Proof.
  intros (st' & Hs & Hi & f0 & E). exists st'. split; [exact Hs|]. split; [exact Hi|]. exists f0. intros f lf Hf Hlf. apply E; lia.
Qed.
Lemma ok2_diag {A} (r : nat -> nat -> presult A) a rest : ok2 r a rest -> ok2 (fun f _ => r f f) a rest.
Proof.
  intros (st' & Hs & Hi & f0 & E). exists st'. split; [exact Hs|]. split; [exact Hi|]. exists f0.
  intros f lf Hf _. apply E; exact Hf.
Qed.
Arguments ok2_diag {A r a rest}.
Arguments ok2_lf_S {A r a rest}.

(* [prun L as st1 H1]: the procedure in the goal starts with the step whose run is L; go on in the state
   st1 it leaves, which satisfies H1.  [pnext as st1 H1]: it starts with t.next(). *)
Tactic Notation "prun" uconstr(L) "as" simple_intropattern(st1) simple_intropattern(H1) :=
  eapply ok2_bind; [eapply L; eassumption|]; intros st1; cbv beta zeta; intros H1.
Tactic Notation "pnext" "as" simple_intropattern(st1) simple_intropattern(H1) :=
  eapply ok2_next; [eassumption|]; intros st1; cbv beta zeta; intros H1.

Lemma parse_expr_S f p st :
  parse_expr (S f) p st = pbind (parse_first_term (W f) f st) (fun n st1 => expr_loop (W f) f p n st1).
Proof. reflexivity. Qed.

Lemma expr_loop_S w lf p n st : expr_loop w (S lf) p n st =
  let '(t, st1) := p_next st in
  let q := prec_of (t_typ t) in
  if negb (is_binary_op (t_typ t)) || (q <? p) then
    if (p =? 0) && (t_typ t =? pk_itemTernIf) then parse_ternary w n st1 else POk n (p_backup st1)
  else pbind (w (q + 1) st1) (fun n2 st2 =>
         match new_binary_op t n n2 with
         | Some bn => expr_loop w lf p bn st2
         | None => p_errorf c_unimplemented st2
         end).
Proof. reflexivity. Qed.

Lemma data_ref_loop_S w lf p key acc st : data_ref_loop w (S lf) p key acc st =
  let '(t, st1) := p_next st in
  let ty := t_typ t in
  if (ty =? pk_itemQuestionDotIdent) || (ty =? pk_itemDotIdent) then
    let ns := ty =? pk_itemQuestionDotIdent in
    match slice_from (if ns then 2 else 1) (t_val t) with
    | None => PCrash m_slice
    | Some k => data_ref_loop w lf p key (acc ++ [NAccKey (t_pos t) ns k]) st1
    end
  else if (ty =? pk_itemQuestionDotIndex) || (ty =? pk_itemDotIndex) then
    let ns := ty =? pk_itemQuestionDotIndex in
    match slice_from (if ns then 2 else 1) (t_val t) with
    | None => PCrash m_slice
    | Some ds =>
        match parse_int 10 ds with
        | None => p_errorf c_number st1
        | Some i => data_ref_loop w lf p key (acc ++ [NAccIndex (t_pos t) ns i]) st1
        end
    end
  else if (ty =? pk_itemQuestionKey) || (ty =? pk_itemLeftBracket) then
    let ns := ty =? pk_itemQuestionKey in
    pbind (w 0 st1) (fun e st2 =>
    pbind (p_expect pk_itemRightBracket st2) (fun _ st3 =>
    data_ref_loop w lf p key (acc ++ [NAccExpr (t_pos t) ns e]) st3))
  else POk (NDataRef p key acc) (p_backup st1).
Proof. reflexivity. Qed.

Lemma list_loop_S w lf p items st : list_loop w (S lf) p items st =
  pbind (w 0 st) (fun e st1 =>
    let items' := items ++ [e] in
    let '(nx, st2) := p_next st1 in
    if t_typ nx =? pk_itemRightBracket then POk (NListLit p items') st2
    else if negb (t_typ nx =? pk_itemComma) then p_unexpected nx st2
    else list_loop w lf p items' st2).
Proof. reflexivity. Qed.

Lemma map_loop_S w lf p items key st : map_loop w (S lf) p items key st =
  pbind (w 0 st) (fun e st1 =>
    let items' := items_set items key e in
    let '(nx, st2) := p_next st1 in
    if t_typ nx =? pk_itemRightBracket then POk (NMapLit p items') st2
    else if negb (t_typ nx =? pk_itemComma) then p_unexpected nx st2
    else
      pbind (p_expect pk_itemString st2) (fun kt st3 =>
        match unquote_string (t_val kt) with
        | None => p_errorf c_unquote st3
        | Some key' => pbind (p_expect pk_itemColon st3) (fun _ st4 => map_loop w lf p items' key' st4)
        end)).
Proof. reflexivity. Qed.

Lemma global_loop_S lf p name nx st : global_loop (S lf) p name nx st =
  if t_typ nx =? pk_itemDotIdent then
    let '(nx', st1) := p_next st in global_loop lf p (name ++ t_val nx) nx' st1
  else POk (NGlobal p name VUndef) (p_backup st).
Proof. reflexivity. Qed.

Lemma func_loop_S w lf p name args st : func_loop w (S lf) p name args st =
  pbind (w 0 st) (fun e st1 =>
    let args' := args ++ [e] in
    let '(nx, st2) := p_next st1 in
    if t_typ nx =? pk_itemComma then func_loop w lf p name args' st2
    else if t_typ nx =? pk_itemRightParen then POk (NFunc p name args') st2
    else p_unexpected nx st2).
Proof. reflexivity. Qed.

Lemma directive_args_loop_S w lf args st : directive_args_loop w (S lf) args st =
  let '(nx, st1) := p_next st in
  if (t_typ nx =? pk_itemColon) || (t_typ nx =? pk_itemComma) then
    pbind (w 0 st1) (fun e st2 => directive_args_loop w lf (args ++ [e]) st2)
  else POk args (p_backup st1).
Proof. reflexivity. Qed.

Lemma print_loop_S w lf p e dirs st : print_loop w (S lf) p e dirs st =
  let '(t, st1) := p_next st in
  if t_typ t =? pk_itemRightDelim then POk (NPrint p e dirs) st1
  else if t_typ t =? pk_itemPipe then
    pbind (p_expect pk_itemIdent st1) (fun id st2 =>
    pbind (directive_args_loop w (S lf) [] st2) (fun args st3 =>
    print_loop w lf p e (dirs ++ [NDirective (t_pos t) (t_val id) args]) st3))
  else p_unexpected t st1.
Proof. reflexivity. Qed.

Lemma Parses_first p ts n l1 n' rest' :
  First ts n l1 -> Loops p n l1 n' rest' -> Parses p ts n' rest'.
Proof.
  intros HF HL. apply on_feeds. intros st H0. apply ok2_Sf. eapply ok2_ext; [intros; apply parse_expr_S|].
  prun (ok2_diag (feeds_on HF H0)) as st1 H1. apply (ok2_diag (feeds_on HL H1)).
Qed.

Definition stop_at (p : N) (t : tok) : bool :=
  (negb (is_binary_op (t_typ t)) || (prec_of (t_typ t) <? p)) && negb ((p =? 0) && (t_typ t =? pk_itemTernIf)).

Lemma Loops_stop p acc t l : stop_at p t = true -> Loops p acc (t :: l) acc (t :: l).
Proof.
  intros Hst. apply on_feeds. intros st H0. apply ok2_Slf. cbn [expr_loop]. pnext as st1 (_ & H1 & _).
  unfold stop_at in Hst. apply andb_true_iff in Hst. destruct Hst as [E1 E2]. apply negb_true_iff in E2.
  rewrite E1, E2. apply ok2_ret, H1.
Qed.

Lemma Loops_step p acc t l n2 l2 bn n' rest' :
  is_binary_op (t_typ t) = true -> (prec_of (t_typ t) <? p) = false ->
  Parses (prec_of (t_typ t) + 1) l n2 l2 ->
  new_binary_op t acc n2 = Some bn ->
  Loops p bn l2 n' rest' ->
  Loops p acc (t :: l) n' rest'.
Proof.
  intros Hb Hq HP Hnb HL. apply on_feeds. intros st H0. apply ok2_Slf. cbn [expr_loop]. pnext as st1 [H1 _].
  rewrite Hb, Hq. cbn [negb orb]. prun (feeds_on HP) as st2 H2. rewrite Hnb. apply (feeds_on HL H2).
Qed.

Lemma Loops_tern acc t l x c l2 y rest' :
  (t_typ t =? pk_itemTernIf) = true ->
  Parses 0 l x (c :: l2) -> (t_typ c =? pk_itemColon) = true ->
  Parses 0 l2 y rest' ->
  Loops 0 acc (t :: l) (NTern (pos_of acc) acc x y) rest'.
Proof.
  intros Ht HX Hc HY. apply on_feeds. intros st H0. apply ok2_Slf. cbn [expr_loop]. pnext as st1 [H1 _].
  apply N.eqb_eq in Ht. rewrite Ht.
  change (negb (is_binary_op pk_itemTernIf) || (prec_of pk_itemTernIf <? 0)) with true.
  change ((0 =? 0) && (pk_itemTernIf =? pk_itemTernIf)) with true. cbv iota. unfold parse_ternary.
  prun (feeds_on HX) as st2 H2. prun (ok2_expect Hc) as st3 H3. prun (feeds_on HY) as st4 H4. apply ok2_ret, H4.
Qed.

Lemma First_paren t l n r l2 :
  (t_typ t =? pk_itemLeftParen) = true ->
  Parses 0 l n (r :: l2) -> (t_typ r =? pk_itemRightParen) = true ->
  First (t :: l) n l2.
Proof.
  intros Ht HP Hr. apply on_feeds. intros st H0. unfold parse_first_term. pnext as st1 [H1 _].
  apply N.eqb_eq in Ht. rewrite Ht.
  change (is_unary_op pk_itemLeftParen) with false. change (pk_itemLeftParen =? pk_itemLeftParen) with true. cbv iota.
  prun (feeds_on HP) as st2 H2. prun (ok2_expect Hr) as st3 H3. apply ok2_ret, H3.
Qed.

Lemma First_unary t l a l2 u :
  is_unary_op (t_typ t) = true ->
  Parses (prec_of (t_typ t)) l a l2 -> new_unary_op t a = Some u ->
  First (t :: l) u l2.
Proof.
  intros Ht HP Hu. apply on_feeds. intros st H0. unfold parse_first_term. pnext as st1 [H1 _]. rewrite Ht.
  prun (feeds_on HP) as st2 H2. rewrite Hu. apply ok2_ret, H2.
Qed.

Lemma First_value t l n rest :
  is_unary_op (t_typ t) = false -> (t_typ t =? pk_itemLeftParen) = false -> is_value (t_typ t) = true ->
  Value t l n rest -> First (t :: l) n rest.
Proof.
  intros E1 E2 E3 HV. apply on_feeds. intros st H0. unfold parse_first_term. pnext as st1 [H1 _].
  rewrite E1, E2, E3. apply (feeds_on HV H1).
Qed.

(* newValueNode: the literal cases consume nothing *)
Lemma Value_null t l : t_typ t = pk_itemNull -> Value t l (NNull (t_pos t)) l.
Proof. intros Ht. apply on_feeds. intros st H0. unfold new_value_node. rewrite Ht. apply ok2_ret, H0. Qed.

Lemma Value_bool t l : t_typ t = pk_itemBool -> Value t l (NBool (t_pos t) (bstr_eqb (t_val t) s_true_lit)) l.
Proof. intros Ht. apply on_feeds. intros st H0. unfold new_value_node. rewrite Ht. apply ok2_ret, H0. Qed.

Lemma Value_int t l z : t_typ t = pk_itemInteger ->
  (if is_prefix s_0x (t_val t) then parse_int 16 (drop 2 (t_val t)) else parse_int 10 (t_val t)) = Some z ->
  Value t l (NInt (t_pos t) z) l.
Proof.
  intros Ht Hz. apply on_feeds. intros st H0. unfold new_value_node. rewrite Ht.
  change (pk_itemInteger =? pk_itemNull) with false. change (pk_itemInteger =? pk_itemBool) with false.
  change (pk_itemInteger =? pk_itemInteger) with true. cbv iota. rewrite Hz. apply ok2_ret, H0.
Qed.

Lemma Value_float t l x : t_typ t = pk_itemFloat -> parse_float (t_val t) = Some x ->
  Value t l (NFloat (t_pos t) x) l.
Proof.
  intros Ht Hz. apply on_feeds. intros st H0. unfold new_value_node. rewrite Ht.
  change (pk_itemFloat =? pk_itemNull) with false. change (pk_itemFloat =? pk_itemBool) with false.
  change (pk_itemFloat =? pk_itemInteger) with false. change (pk_itemFloat =? pk_itemFloat) with true.
  cbv iota. rewrite Hz. apply ok2_ret, H0.
Qed.

Lemma Value_float_round t l x : t_typ t = pk_itemFloat -> parse_float_round (t_val t) = FRVal x ->
  Value t l (NFloat (t_pos t) x) l.
Proof.
  intros Ht Hz. apply on_feeds. intros st H0. eapply ok2_ext; [intros; apply NumLitProofs.float_value_node, Ht|].
  rewrite Hz. apply ok2_ret, H0.
Qed.

Lemma Value_string t l s : t_typ t = pk_itemString -> unquote_string (t_val t) = Some s ->
  Value t l (NString (t_pos t) (t_val t) s) l.
Proof.
  intros Ht Hz. apply on_feeds. intros st H0. unfold new_value_node. rewrite Ht.
  change (pk_itemString =? pk_itemNull) with false. change (pk_itemString =? pk_itemBool) with false.
  change (pk_itemString =? pk_itemInteger) with false. change (pk_itemString =? pk_itemFloat) with false.
  change (pk_itemString =? pk_itemString) with true. cbv iota. rewrite Hz. apply ok2_ret, H0.
Qed.

Lemma Value_list t l n rest : t_typ t = pk_itemLeftBracket -> ListOrMap t l n rest -> Value t l n rest.
Proof. intros Ht H. apply on_feeds. intros st H0. unfold new_value_node. rewrite Ht. apply (feeds_on H H0). Qed.

Lemma Value_ref t l key n rest : t_typ t = pk_itemDollarIdent -> slice_from 1 (t_val t) = Some key ->
  RefLoop (t_pos t) key [] l n rest -> Value t l n rest.
Proof.
  intros Ht Hk H. apply on_feeds. intros st H0. unfold new_value_node. rewrite Ht.
  change (pk_itemDollarIdent =? pk_itemNull) with false. change (pk_itemDollarIdent =? pk_itemBool) with false.
  change (pk_itemDollarIdent =? pk_itemInteger) with false. change (pk_itemDollarIdent =? pk_itemFloat) with false.
  change (pk_itemDollarIdent =? pk_itemString) with false. change (pk_itemDollarIdent =? pk_itemLeftBracket) with false.
  change (pk_itemDollarIdent =? pk_itemDollarIdent) with true. cbv iota.
  unfold parse_data_ref. rewrite Hk. apply (feeds_on H H0).
Qed.

Lemma nvn_ident w lf t st : t_typ t = pk_itemIdent ->
  new_value_node w lf t st =
    let '(nx, st1) := p_next st in
    if negb (t_typ nx =? pk_itemLeftParen) then global_loop lf (t_pos t) (t_val t) nx st1
    else new_function_node w lf t st1.
Proof. intros Ht. unfold new_value_node. rewrite Ht. reflexivity. Qed.

Lemma Value_global t nx l n rest : t_typ t = pk_itemIdent -> (t_typ nx =? pk_itemLeftParen) = false ->
  GStep (t_pos t) (t_val t) (nx :: l) n rest -> Value t (nx :: l) n rest.
Proof.
  intros Ht Hnx H. apply on_feeds. intros st H0. eapply ok2_ext; [intros; apply nvn_ident, Ht|].
  pose proof (feeds_on H H0) as HG. cbv beta in HG. destruct (next_feeds _ _ _ H0) as (st1 & En & _). rewrite En in *.
  rewrite Hnx. exact HG.
Qed.

Lemma Value_func t lp l n rest : t_typ t = pk_itemIdent -> (t_typ lp =? pk_itemLeftParen) = true ->
  Func t l n rest -> Value t (lp :: l) n rest.
Proof.
  intros Ht Hlp H. apply on_feeds. intros st H0. eapply ok2_ext; [intros; apply nvn_ident, Ht|].
  pnext as st1 [H1 _]. rewrite Hlp. apply (feeds_on H H1).
Qed.

Lemma GStep_stop p name nx l : (t_typ nx =? pk_itemDotIdent) = false ->
  GStep p name (nx :: l) (NGlobal p name VUndef) (nx :: l).
Proof.
  intros Hnx. apply on_feeds. intros st H0. apply ok2_Slf. pnext as st1 (_ & H1 & _). cbn [global_loop]. rewrite Hnx.
  apply ok2_ret, H1.
Qed.

Lemma GStep_dot p name nx l n rest : (t_typ nx =? pk_itemDotIdent) = true ->
  GStep p (name ++ t_val nx) l n rest -> GStep p name (nx :: l) n rest.
Proof.
  intros Hnx H. apply on_feeds. intros st H0. apply ok2_Slf. pnext as st1 [H1 _]. cbn [global_loop]. rewrite Hnx.
  apply (feeds_on H H1).
Qed.

Lemma Func_empty t r l : (t_typ r =? pk_itemRightParen) = true ->
  Func t (r :: l) (NFunc (t_pos t) (t_val t) []) l.
Proof.
  intros Hr. apply on_feeds. intros st H0. unfold new_function_node. eapply ok2_peek; [exact H0|]. intros st1 H1. cbv beta.
  rewrite Hr. pnext as st2 [H2 _]. apply ok2_ret, H2.
Qed.

Lemma Func_args t ts x l n rest : ts = x :: l -> (t_typ x =? pk_itemRightParen) = false ->
  FLoop (t_pos t) (t_val t) [] ts n rest -> Func t ts n rest.
Proof.
  intros -> Hx H. apply on_feeds. intros st H0. unfold new_function_node. eapply ok2_peek; [exact H0|]. intros st1 H1. cbv beta.
  rewrite Hx. apply (feeds_on H H1).
Qed.

Lemma FLoop_last p name args ts e r l2 :
  Parses 0 ts e (r :: l2) -> (t_typ r =? pk_itemComma) = false -> (t_typ r =? pk_itemRightParen) = true ->
  FLoop p name args ts (NFunc p name (args ++ [e])) l2.
Proof.
  intros HP E1 E2. apply on_feeds. intros st H0. apply ok2_Slf. cbn [func_loop]. prun (feeds_on HP) as st1 H1.
  pnext as st2 [H2 _]. rewrite E1, E2. apply ok2_ret, H2.
Qed.

Lemma FLoop_more p name args ts e c l2 n rest :
  Parses 0 ts e (c :: l2) -> (t_typ c =? pk_itemComma) = true ->
  FLoop p name (args ++ [e]) l2 n rest -> FLoop p name args ts n rest.
Proof.
  intros HP E1 HL. apply on_feeds. intros st H0. apply ok2_Slf. cbn [func_loop]. prun (feeds_on HP) as st1 H1.
  pnext as st2 [H2 _]. rewrite E1. apply (feeds_on HL H2).
Qed.

Lemma LM_empty_map t c r l :
  (t_typ c =? pk_itemColon) = true -> (t_typ r =? pk_itemRightBracket) = true ->
  ListOrMap t (c :: r :: l) (NMapLit (t_pos t) []) l.
Proof.
  intros Hc Hr. apply on_feeds. intros st H0. unfold parse_list_or_map. pnext as st1 [H1 _]. rewrite Hc.
  prun (ok2_expect Hr) as st2 H2. apply ok2_ret, H2.
Qed.

Lemma LM_empty_list t r l :
  (t_typ r =? pk_itemColon) = false -> (t_typ r =? pk_itemRightBracket) = true ->
  ListOrMap t (r :: l) (NListLit (t_pos t) []) l.
Proof.
  intros Hc Hr. apply on_feeds. intros st H0. unfold parse_list_or_map. pnext as st1 [H1 _]. rewrite Hc, Hr.
  apply ok2_ret, H1.
Qed.

Lemma LM_single t ts x l first r l2 : ts = x :: l ->
  (t_typ x =? pk_itemColon) = false -> (t_typ x =? pk_itemRightBracket) = false ->
  Parses 0 ts first (r :: l2) ->
  (t_typ r =? pk_itemColon) = false -> (t_typ r =? pk_itemComma) = false -> (t_typ r =? pk_itemRightBracket) = true ->
  ListOrMap t ts (NListLit (t_pos t) [first]) l2.
Proof.
  intros -> Hx1 Hx2 HP Hr1 Hr2 Hr3. apply on_feeds. intros st H0. unfold parse_list_or_map. pnext as st1 (_ & H1 & _).
  rewrite Hx1, Hx2. prun (feeds_on HP) as st2 H2. pnext as st3 [H3 _]. rewrite Hr1, Hr2, Hr3. apply ok2_ret, H3.
Qed.

Lemma LM_list t ts x l first c l2 n rest : ts = x :: l ->
  (t_typ x =? pk_itemColon) = false -> (t_typ x =? pk_itemRightBracket) = false ->
  Parses 0 ts first (c :: l2) ->
  (t_typ c =? pk_itemColon) = false -> (t_typ c =? pk_itemComma) = true ->
  LLoop (t_pos t) [first] l2 n rest ->
  ListOrMap t ts n rest.
Proof.
  intros -> Hx1 Hx2 HP Hc1 Hc2 HL. apply on_feeds. intros st H0. unfold parse_list_or_map. pnext as st1 (_ & H1 & _).
  rewrite Hx1, Hx2. prun (feeds_on HP) as st2 H2. pnext as st3 [H3 _]. rewrite Hc1, Hc2. apply (feeds_on HL H3).
Qed.

Lemma LM_map t x l p' q v c l2 n rest :
  (t_typ x =? pk_itemColon) = false -> (t_typ x =? pk_itemRightBracket) = false ->
  Parses 0 (x :: l) (NString p' q v) (c :: l2) ->
  (t_typ c =? pk_itemColon) = true ->
  MLoop (t_pos t) [] v l2 n rest ->
  ListOrMap t (x :: l) n rest.
Proof.
  intros Hx1 Hx2 HP Hc1 HL. apply on_feeds. intros st H0. unfold parse_list_or_map. pnext as st1 (_ & H1 & _).
  rewrite Hx1, Hx2. prun (feeds_on HP) as st2 H2. pnext as st3 [H3 _]. rewrite Hc1. unfold parse_map_literal.
  apply (feeds_on HL H3).
Qed.

Lemma LLoop_last p items ts e r l2 :
  Parses 0 ts e (r :: l2) -> (t_typ r =? pk_itemRightBracket) = true ->
  LLoop p items ts (NListLit p (items ++ [e])) l2.
Proof.
  intros HP Hr. apply on_feeds. intros st H0. apply ok2_Slf. cbn [list_loop]. prun (feeds_on HP) as st1 H1.
  pnext as st2 [H2 _]. rewrite Hr. apply ok2_ret, H2.
Qed.

Lemma LLoop_more p items ts e c l2 n rest :
  Parses 0 ts e (c :: l2) -> (t_typ c =? pk_itemRightBracket) = false -> (t_typ c =? pk_itemComma) = true ->
  LLoop p (items ++ [e]) l2 n rest -> LLoop p items ts n rest.
Proof.
  intros HP E1 E2 HL. apply on_feeds. intros st H0. apply ok2_Slf. cbn [list_loop]. prun (feeds_on HP) as st1 H1.
  pnext as st2 [H2 _]. rewrite E1, E2. cbn [negb]. apply (feeds_on HL H2).
Qed.

Lemma MLoop_last p items key ts e r l2 :
  Parses 0 ts e (r :: l2) -> (t_typ r =? pk_itemRightBracket) = true ->
  MLoop p items key ts (NMapLit p (items_set items key e)) l2.
Proof.
  intros HP Hr. apply on_feeds. intros st H0. apply ok2_Slf. cbn [map_loop]. prun (feeds_on HP) as st1 H1.
  pnext as st2 [H2 _]. rewrite Hr. apply ok2_ret, H2.
Qed.

Lemma MLoop_more p items key ts e c k cl l2 key' n rest :
  Parses 0 ts e (c :: k :: cl :: l2) ->
  (t_typ c =? pk_itemRightBracket) = false -> (t_typ c =? pk_itemComma) = true ->
  (t_typ k =? pk_itemString) = true -> unquote_string (t_val k) = Some key' ->
  (t_typ cl =? pk_itemColon) = true ->
  MLoop p (items_set items key e) key' l2 n rest -> MLoop p items key ts n rest.
Proof.
  intros HP E1 E2 Hk Hu Hcl HL. apply on_feeds. intros st H0. apply ok2_Slf. cbn [map_loop]. prun (feeds_on HP) as st1 H1.
  pnext as st2 [H2 _]. rewrite E1, E2. cbn [negb]. prun (ok2_expect Hk) as st3 H3. rewrite Hu.
  prun (ok2_expect Hcl) as st4 H4. apply (feeds_on HL H4).
Qed.

Definition access_start (ty : N) : bool :=
  (ty =? pk_itemQuestionDotIdent) || (ty =? pk_itemDotIdent) || (ty =? pk_itemQuestionDotIndex) || (ty =? pk_itemDotIndex) ||
  (ty =? pk_itemQuestionKey) || (ty =? pk_itemLeftBracket).

Lemma Ref_stop p key acc t l : access_start (t_typ t) = false ->
  RefLoop p key acc (t :: l) (NDataRef p key acc) (t :: l).
Proof.
  intros Ha. apply on_feeds. intros st H0. apply ok2_Slf. cbn [data_ref_loop]. pnext as st1 (_ & H1 & _).
  unfold access_start in Ha. repeat (apply orb_false_iff in Ha; destruct Ha as [Ha ?]).
  repeat match goal with H : (_ =? _) = false |- _ => rewrite H; clear H end. apply ok2_ret, H1.
Qed.

Lemma Ref_key p key acc t l ns k n rest :
  ((t_typ t =? pk_itemQuestionDotIdent) || (t_typ t =? pk_itemDotIdent)) = true ->
  (t_typ t =? pk_itemQuestionDotIdent) = ns ->
  slice_from (if ns then 2 else 1) (t_val t) = Some k ->
  RefLoop p key (acc ++ [NAccKey (t_pos t) ns k]) l n rest -> RefLoop p key acc (t :: l) n rest.
Proof.
  intros Ht Hns Hk HL. apply on_feeds. intros st H0. apply ok2_Slf. cbn [data_ref_loop]. pnext as st1 [H1 _].
  rewrite Ht, Hns, Hk. apply (feeds_on HL H1).
Qed.

Lemma Ref_idx p key acc t l ns ds i n rest :
  ((t_typ t =? pk_itemQuestionDotIdent) || (t_typ t =? pk_itemDotIdent)) = false ->
  ((t_typ t =? pk_itemQuestionDotIndex) || (t_typ t =? pk_itemDotIndex)) = true ->
  (t_typ t =? pk_itemQuestionDotIndex) = ns ->
  slice_from (if ns then 2 else 1) (t_val t) = Some ds -> parse_int 10 ds = Some i ->
  RefLoop p key (acc ++ [NAccIndex (t_pos t) ns i]) l n rest -> RefLoop p key acc (t :: l) n rest.
Proof.
  intros Ht0 Ht Hns Hk Hpi HL. apply on_feeds. intros st H0. apply ok2_Slf. cbn [data_ref_loop]. pnext as st1 [H1 _].
  rewrite Ht0, Ht, Hns, Hk, Hpi. apply (feeds_on HL H1).
Qed.

Lemma Ref_exp p key acc t l ns e r l2 n rest :
  ((t_typ t =? pk_itemQuestionDotIdent) || (t_typ t =? pk_itemDotIdent)) = false ->
  ((t_typ t =? pk_itemQuestionDotIndex) || (t_typ t =? pk_itemDotIndex)) = false ->
  ((t_typ t =? pk_itemQuestionKey) || (t_typ t =? pk_itemLeftBracket)) = true ->
  (t_typ t =? pk_itemQuestionKey) = ns ->
  Parses 0 l e (r :: l2) -> (t_typ r =? pk_itemRightBracket) = true ->
  RefLoop p key (acc ++ [NAccExpr (t_pos t) ns e]) l2 n rest -> RefLoop p key acc (t :: l) n rest.
Proof.
  intros Ht0 Ht1 Ht Hns HP Hr HL. apply on_feeds. intros st H0. apply ok2_Slf. cbn [data_ref_loop]. pnext as st1 [H1 _].
  rewrite Ht0, Ht1, Ht, Hns. prun (feeds_on HP) as st2 H2. prun (ok2_expect Hr) as st3 H3. apply (feeds_on HL H3).
Qed.

Lemma DArgs_stop args t l :
  ((t_typ t =? pk_itemColon) || (t_typ t =? pk_itemComma)) = false -> DArgs args (t :: l) args (t :: l).
Proof.
  intros Ht. apply on_feeds. intros st H0. apply ok2_Slf. cbn [directive_args_loop]. pnext as st1 (_ & H1 & _).
  rewrite Ht. apply ok2_ret, H1.
Qed.

Lemma DArgs_more args t l e l2 args' rest :
  ((t_typ t =? pk_itemColon) || (t_typ t =? pk_itemComma)) = true ->
  Parses 0 l e l2 -> DArgs (args ++ [e]) l2 args' rest -> DArgs args (t :: l) args' rest.
Proof.
  intros Ht HP HL. apply on_feeds. intros st H0. apply ok2_Slf. cbn [directive_args_loop]. pnext as st1 [H1 _].
  rewrite Ht. prun (feeds_on HP) as st2 H2. apply (feeds_on HL H2).
Qed.

Lemma PLoop_end p e dirs t l : (t_typ t =? pk_itemRightDelim) = true ->
  PLoop p e dirs (t :: l) (NPrint p e dirs) l.
Proof.
  intros Ht. apply on_feeds. intros st H0. apply ok2_Slf. cbn [print_loop]. pnext as st1 [H1 _]. rewrite Ht.
  apply ok2_ret, H1.
Qed.

Lemma PLoop_dir p e dirs t id l args l2 n rest :
  (t_typ t =? pk_itemRightDelim) = false -> (t_typ t =? pk_itemPipe) = true ->
  (t_typ id =? pk_itemIdent) = true ->
  DArgs [] l args l2 ->
  PLoop p e (dirs ++ [NDirective (t_pos t) (t_val id) args]) l2 n rest ->
  PLoop p e dirs (t :: id :: l) n rest.
Proof.
  intros Ht1 Ht2 Hid HD HL. apply on_feeds. intros st H0. apply ok2_Slf. cbn [print_loop]. pnext as st1 [H1 _].
  rewrite Ht1, Ht2. prun (ok2_expect Hid) as st2 H2.
  prun (ok2_lf_S (feeds_on HD H2)) as st3 H3. apply (feeds_on HL H3).
Qed.

Lemma ParsesPrint_intro p ts e l1 n rest :
  Parses 0 ts e l1 -> PLoop p e [] l1 n rest -> ParsesPrint p ts n rest.
Proof.
  intros HP HL. apply on_feeds. intros st H0. unfold parse_print, parse_print_body.
  prun (feeds_on HP) as st1 H1. apply (ok2_diag (feeds_on HL H1)).
Qed.

Global Opaque parse_expr expr_loop data_ref_loop list_loop map_loop global_loop func_loop directive_args_loop print_loop.
