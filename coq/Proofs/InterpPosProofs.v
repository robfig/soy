(* The tree walker does not depend on the positions stored in the nodes, up to
   the error-position register: two nodes that are the same code ([pstrip]-equal)
   are related computations.  Same method as Proofs/InterpRelProofs.v, with the
   tree [n] on one side and [pstrip n] on the other.  (C11.  Proofs/InterpPos.v is C01's statement of
   the kind -- states equal up to [cur], positions erased by [strip_pos] -- through Proofs/InterpRel.v.) *)
From Soy Require Import Model.Bytes Model.Outcome Model.Num Model.Values Model.Ast Model.Escape
  Model.Directives Model.Print Model.Interp Model.MsgParts Spec.MsgCat Proofs.InterpRelProofs Generated.Tables.
Open Scope N_scope.

(* one side: the node itself ([false]) or the node without positions ([true]) *)
Definition T (s : bool) (n : node) : node := if s then pstrip n else n.
Definition P (s : bool) (p : N) : N := if s then 0 else p.
Definition TO (s : bool) (o : option node) : option node := option_map (T s) o.

Lemma omap_id (o : option node) : option_map (fun n => n) o = o.
Proof. destruct o; reflexivity. Qed.
Lemma mapkv_id (l : list (bstr * node)) : map (fun kv => (fst kv, snd kv)) l = l.
Proof. induction l as [|[k v] r IH]; cbn [map fst snd]; [reflexivity | rewrite IH; reflexivity]. Qed.

Ltac Tctor s := unfold T, P, TO; destruct s; cbn [pstrip option_map];
              rewrite ?map_id, ?omap_id, ?mapkv_id; reflexivity.

Lemma T_NFunc s p name args : T s (NFunc p name args) = NFunc (P s p) name (map (T s) args). Proof. Tctor s. Qed.
Lemma T_NListLit s p items : T s (NListLit p items) = NListLit (P s p) (map (T s) items). Proof. Tctor s. Qed.
Lemma T_NMapLit s p items : T s (NMapLit p items) = NMapLit (P s p) (map (fun kv => (fst kv, T s (snd kv))) items). Proof. Tctor s. Qed.
Lemma T_NDataRef s p key acc : T s (NDataRef p key acc) = NDataRef (P s p) key (map (T s) acc). Proof. Tctor s. Qed.
Lemma T_NAccIndex s p ns i : T s (NAccIndex p ns i) = NAccIndex (P s p) ns i. Proof. Tctor s. Qed.
Lemma T_NAccKey s p ns k : T s (NAccKey p ns k) = NAccKey (P s p) ns k. Proof. Tctor s. Qed.
Lemma T_NAccExpr s p ns a : T s (NAccExpr p ns a) = NAccExpr (P s p) ns (T s a). Proof. Tctor s. Qed.
Lemma T_NNot s p a : T s (NNot p a) = NNot (P s p) (T s a). Proof. Tctor s. Qed.
Lemma T_NNeg s p a : T s (NNeg p a) = NNeg (P s p) (T s a). Proof. Tctor s. Qed.
Lemma T_NBin s op p a1 a2 : T s (NBin op p a1 a2) = NBin op (P s p) (T s a1) (T s a2). Proof. Tctor s. Qed.
Lemma T_NTern s p c x y : T s (NTern p c x y) = NTern (P s p) (T s c) (T s x) (T s y). Proof. Tctor s. Qed.
Lemma T_NList s p nodes : T s (NList p nodes) = NList (P s p) (map (T s) nodes). Proof. Tctor s. Qed.
Lemma T_NRawText s p t : T s (NRawText p t) = NRawText (P s p) t. Proof. Tctor s. Qed.
Lemma T_NPrint s p arg dirs : T s (NPrint p arg dirs) = NPrint (P s p) (T s arg) (map (T s) dirs). Proof. Tctor s. Qed.
Lemma T_NDirective s p name args : T s (NDirective p name args) = NDirective (P s p) name (map (T s) args). Proof. Tctor s. Qed.
Lemma T_NCss s p e suffix : T s (NCss p e suffix) = NCss (P s p) (TO s e) suffix. Proof. Tctor s. Qed.
Lemma T_NLog s p body : T s (NLog p body) = NLog (P s p) (T s body). Proof. Tctor s. Qed.
Lemma T_NIf s p conds : T s (NIf p conds) = NIf (P s p) (map (T s) conds). Proof. Tctor s. Qed.
Lemma T_NIfCond s p cond body : T s (NIfCond p cond body) = NIfCond (P s p) (TO s cond) (T s body). Proof. Tctor s. Qed.
Lemma T_NFor s p var lst body ie : T s (NFor p var lst body ie) = NFor (P s p) var (T s lst) (T s body) (TO s ie). Proof. Tctor s. Qed.
Lemma T_NSwitch s p v cases : T s (NSwitch p v cases) = NSwitch (P s p) (T s v) (map (T s) cases). Proof. Tctor s. Qed.
Lemma T_NSwitchCase s p values body : T s (NSwitchCase p values body) = NSwitchCase (P s p) (map (T s) values) (T s body). Proof. Tctor s. Qed.
Lemma T_NCall s p name ad dat params : T s (NCall p name ad dat params) = NCall (P s p) name ad (TO s dat) (map (T s) params). Proof. Tctor s. Qed.
Lemma T_NParamValue s p k v : T s (NParamValue p k v) = NParamValue (P s p) k (T s v). Proof. Tctor s. Qed.
Lemma T_NParamContent s p k c : T s (NParamContent p k c) = NParamContent (P s p) k (T s c). Proof. Tctor s. Qed.
Lemma T_NLetValue s p name e : T s (NLetValue p name e) = NLetValue (P s p) name (T s e). Proof. Tctor s. Qed.
Lemma T_NLetContent s p name body : T s (NLetContent p name body) = NLetContent (P s p) name (T s body). Proof. Tctor s. Qed.
Lemma T_NMsg s p id mn ds body : T s (NMsg p id mn ds body) = NMsg (P s p) id mn ds (map (T s) body). Proof. Tctor s. Qed.
Lemma T_NMsgPlaceholder s p name body : T s (NMsgPlaceholder p name body) = NMsgPlaceholder (P s p) name (T s body). Proof. Tctor s. Qed.
Lemma T_NMsgHtmlTag s p t : T s (NMsgHtmlTag p t) = NMsgHtmlTag (P s p) t. Proof. Tctor s. Qed.
Lemma T_NMsgPlural s p vn v cases dflt :
  T s (NMsgPlural p vn v cases dflt) = NMsgPlural (P s p) vn (T s v) (map (T s) cases) (map (T s) dflt). Proof. Tctor s. Qed.
Lemma T_NMsgPluralCase s p v body : T s (NMsgPluralCase p v body) = NMsgPluralCase (P s p) v (map (T s) body). Proof. Tctor s. Qed.
Lemma T_NTemplate s p name body ae pv : T s (NTemplate p name body ae pv) = NTemplate (P s p) name (T s body) ae pv. Proof. Tctor s. Qed.

#[global] Hint Rewrite T_NFunc T_NListLit T_NMapLit T_NDataRef T_NAccIndex T_NAccKey T_NAccExpr T_NNot T_NNeg T_NBin T_NTern
  T_NList T_NRawText T_NPrint T_NDirective T_NCss T_NLog T_NIf T_NIfCond T_NFor T_NSwitch T_NSwitchCase T_NCall
  T_NParamValue T_NParamContent T_NLetValue T_NLetContent T_NMsg T_NMsgPlaceholder T_NMsgHtmlTag T_NMsgPlural
  T_NMsgPluralCase T_NTemplate : Tdb.

(* A constructor that the code at hand does not look into: both sides see the same constructor and take the
   default branch.  The node is destructed while the loop function is still folded, so that the 45 goals are
   small; [apply] then finds the default branch by computation. *)
Ltac Tother s := destruct s; apply mrel_fail.

Section Pos.
Variable cf : cfg.
Variable okm : N -> list node -> Prop.
Hypothesis Hokm0 : forall body, okm 0 body.
Hypothesis Hreg : Forall (fun t => okP okm (t_node t)) (r_templates (c_reg cf)).
(* one side keeps the positions, the other has them erased *)
Variable s1 : bool.
Local Notation s2 := (negb s1).
Variables w1 w2 : node -> M value.
Hypothesis Hsame : forall n, okP okm n -> mrel (w1 n) (w2 n).
Hypothesis Hw : forall n, okP okm n -> mrel (w1 (T s1 n)) (w2 (T s2 n)).

Notation okP := (okP okm).

(* [mr]: every primitive of the walker is [mrel]-related to itself; applies those lemmas and the hypotheses *)
Ltac mr := repeat first
  [ assumption | apply mrel_ret | apply mrel_fail | apply mrel_lift | apply mrel_write | apply mrel_write_all
  | apply mrel_m_set | apply mrel_m_lookup | apply mrel_m_push | apply mrel_m_pop
  | apply mrel_fresh_list | apply mrel_fresh_list_or_nil | apply mrel_fresh_map | apply mrel_set_cur
  | solve [eauto]
  | (apply mrel_bind; [ | intros ? ])
  | match goal with
    | |- mrel (match ?x with _ => _ end) (match ?x with _ => _ end) => destruct x
    | |- mrel (if ?c then _ else _) (if ?c then _ else _) => destruct c
    end ].

Lemma eval_T e : okP e -> mrel (eval w1 (T s1 e)) (eval w2 (T s2 e)).
Proof. intros H. apply mrel_eval, Hw, H. Qed.

Lemma evaldef_T e : okP e -> mrel (evaldef w1 (T s1 e)) (evaldef w2 (T s2 e)).
Proof. intros H. unfold evaldef. pose proof (eval_T e H). mr. Qed.

Lemma eval_list_T es : Forall okP es -> mrel (eval_list w1 (map (T s1) es)) (eval_list w2 (map (T s2) es)).
Proof.
  induction 1 as [|e r He _ IH]; cbn [map eval_list]; [apply mrel_ret|].
  pose proof (eval_T e He). mr.
Qed.

Lemma walk_list_T ns : Forall okP ns -> mrel (walk_list w1 (map (T s1) ns)) (walk_list w2 (map (T s2) ns)).
Proof.
  induction 1 as [|e r He _ IH]; cbn [map walk_list]; [apply mrel_ret|].
  pose proof (Hw e He). mr.
Qed.

Lemma render_block_T body : okP body -> mrel (render_block w1 (T s1 body)) (render_block w2 (T s2 body)).
Proof. intros H. apply mrel_block, Hw, H. Qed.

Lemma maplit_items_T l : Forall (fun kv => okP (snd kv)) l ->
  mrel (maplit_items w1 (map (fun kv => (fst kv, T s1 (snd kv))) l)) (maplit_items w2 (map (fun kv => (fst kv, T s2 (snd kv))) l)).
Proof.
  induction 1 as [|[k e] r He _ IH]; cbn [map maplit_items fst snd]; [apply mrel_ret|].
  cbn [snd] in He. pose proof (eval_T e He). mr.
Qed.

Lemma loop_func_T name args : mrel (loop_func name (map (T s1) args)) (loop_func name (map (T s2) args)).
Proof.
  destruct args as [|a r]; cbn [map]; [apply mrel_fail|].
  destruct a; try Tother s1.
  rewrite !T_NDataRef. unfold loop_func. mr.
Qed.

Lemma call_func_T name args : Forall okP args -> mrel (call_func w1 name (map (T s1) args)) (call_func w2 name (map (T s2) args)).
Proof. intros H. unfold call_func. rewrite !map_length. pose proof (eval_list_T args H). mr. Qed.

Lemma is_nullsafe_T s a : is_nullsafe (T s a) = is_nullsafe a.
Proof. destruct a, s; reflexivity. Qed.

Lemma dataref_access_T acc : Forall okP acc ->
  forall ref, mrel (dataref_access w1 (map (T s1) acc) ref) (dataref_access w2 (map (T s2) acc) ref).
Proof.
  induction 1 as [|a rest Ha _ IH]; intros ref; cbn [map dataref_access]; [apply mrel_ret|].
  rewrite !is_nullsafe_T.
  apply mrel_bind.
  - destruct a; try Tother s1.
    + rewrite !T_NAccIndex. apply mrel_ret.
    + rewrite !T_NAccKey. apply mrel_ret.
    + rewrite !T_NAccExpr. cbn [InterpRelProofs.okP] in Ha. pose proof (eval_T _ Ha). mr.
  - intros [oi k]. mr.
Qed.

Lemma print_dirs_T l : Forall okP l -> forall v, mrel (print_dirs cf w1 (map (T s1) l) v) (print_dirs cf w2 (map (T s2) l) v).
Proof.
  induction 1 as [|d r Hd _ IH]; intros v; cbn [map]; [apply mrel_ret|].
  destruct d; try Tother s1.
  rewrite !T_NDirective. cbn [print_dirs]. cbn [InterpRelProofs.okP] in Hd. apply okP_all in Hd. pose proof (eval_list_T _ Hd).
  rewrite !map_length.
  destruct (lookup_directive name) as [[arglens x]|]; [|apply mrel_fail]. mr.
Qed.

Lemma if_conds_T cs : Forall okP cs -> mrel (if_conds w1 (map (T s1) cs)) (if_conds w2 (map (T s2) cs)).
Proof.
  induction 1 as [|c r Hc _ IH]; cbn [map]; [apply mrel_ret|].
  destruct c; try Tother s1.
  rewrite !T_NIfCond. cbn [if_conds]. cbn [InterpRelProofs.okP] in Hc. destruct Hc as [Hcond Hbody].
  pose proof (Hw _ Hbody). destruct cond as [cnd|]; cbn [TO option_map]; [pose proof (eval_T _ Hcond)|]; mr.
Qed.

Lemma for_items_T var body : okP body ->
  forall items i, mrel (for_items w1 var (T s1 body) i items) (for_items w2 var (T s2 body) i items).
Proof.
  intros Hb. pose proof (Hw _ Hb). induction items as [|x r IH]; intros i; cbn [for_items]; [apply mrel_ret|]. mr.
Qed.

Lemma case_hit_T sv vs : Forall okP vs -> mrel (case_hit w1 sv (map (T s1) vs)) (case_hit w2 sv (map (T s2) vs)).
Proof.
  induction 1 as [|x r Hx _ IH]; cbn [map case_hit]; [apply mrel_ret|]. pose proof (eval_T _ Hx). mr.
Qed.

Lemma map_nil_T {A} s (l : list node) (a c : A) :
  match map (T s) l with [] => a | _ :: _ => c end = match l with [] => a | _ :: _ => c end.
Proof. destruct l; reflexivity. Qed.

Lemma switch_cases_T sv cs : Forall okP cs -> mrel (switch_cases w1 sv (map (T s1) cs)) (switch_cases w2 sv (map (T s2) cs)).
Proof.
  induction 1 as [|c r Hc _ IH]; cbn [map]; [apply mrel_ret|].
  destruct c; try Tother s1.
  rewrite !T_NSwitchCase. cbn [switch_cases]. cbn [InterpRelProofs.okP] in Hc. destruct Hc as [Hv Hbody]. apply okP_all in Hv.
  pose proof (Hw _ Hbody). pose proof (case_hit_T sv _ Hv). rewrite !map_nil_T. mr.
Qed.

Lemma call_params_T ps : Forall okP ps ->
  forall cd, mrel (call_params w1 (map (T s1) ps) cd) (call_params w2 (map (T s2) ps) cd).
Proof.
  induction 1 as [|p r Hp _ IH]; intros cd; cbn [map]; [apply mrel_ret|].
  destruct p; try Tother s1; cbn [InterpRelProofs.okP] in Hp.
  - rewrite !T_NParamValue. cbn [call_params]. pose proof (eval_T _ Hp). mr.
  - rewrite !T_NParamContent. cbn [call_params]. pose proof (render_block_T _ Hp). mr.
Qed.

Lemma call_data_T alldata dat :
  match dat with Some x => okP x | None => True end ->
  mrel (call_data w1 alldata (TO s1 dat)) (call_data w2 alldata (TO s2 dat)).
Proof.
  intros Hd. unfold call_data. apply mrel_get_bind. intros t1 t2 He. rewrite (eqv_ctx _ _ He).
  destruct alldata; [mr|]. destruct dat as [x|]; cbn [TO option_map]; [pose proof (eval_T _ Hd)|]; mr.
Qed.

(* the callee comes from the registry: the same node on both sides *)
Lemma call_enter_same callee cd : okP (t_node callee) -> mrel (call_enter w1 callee cd) (call_enter w2 callee cd).
Proof. intros Hc. apply (call_enter_rel okm w1 w2 Hsame callee cd Hc). Qed.

Lemma plural_pick_T mp i dflt cs :
  Forall okP dflt -> Forall okP cs ->
  mrel (plural_pick w1 (P s1 mp) i (map (T s1) dflt) (map (T s1) cs)) (plural_pick w2 (P s2 mp) i (map (T s2) dflt) (map (T s2) cs)).
Proof.
  intros Hd. assert (okP (NMsg mp 0 [] [] dflt)) as Hsyn by (cbn [InterpRelProofs.okP]; split; [apply Hokm0 | apply okP_all, Hd]).
  pose proof (Hw _ Hsyn) as Hd'. rewrite !T_NMsg in Hd'.
  induction 1 as [|c r Hc _ IH]; cbn [map]; [cbn [plural_pick]; mr|].
  destruct c; try Tother s1.
  rewrite !T_NMsgPluralCase. cbn [plural_pick]. cbn [InterpRelProofs.okP] in Hc.
  assert (okP (NMsg mp 0 [] [] body)) as Hsyn' by (cbn [InterpRelProofs.okP]; split; [apply Hokm0 | exact Hc]).
  pose proof (Hw _ Hsyn') as Hc'. rewrite !T_NMsg in Hc'. mr.
Qed.

Lemma msg_body_T mp ns : Forall okP ns ->
  mrel (msg_body w1 (P s1 mp) (map (T s1) ns)) (msg_body w2 (P s2 mp) (map (T s2) ns)).
Proof.
  induction 1 as [|n r Hn _ IH]; cbn [map]; [apply mrel_ret|].
  destruct n; try (destruct s1; exact IH); cbn [InterpRelProofs.okP] in Hn.
  - pose proof (Hw (NRawText p text) I) as Hr. rewrite !T_NRawText in *. cbn [msg_body]. mr.
  - rewrite !T_NMsgPlaceholder. cbn [msg_body]. pose proof (Hw _ Hn). mr.
  - rewrite !T_NMsgPlural. cbn [msg_body]. destruct Hn as [Hv [Hc Hd]]. apply okP_all in Hc. apply okP_all in Hd.
    pose proof (eval_T _ Hv). pose proof (plural_pick_T mp). mr.
Qed.

Lemma walk_node_T n : okP n -> mrel (walk_node cf w1 (T s1 n)) (walk_node cf w2 (T s2 n)).
Proof.
  intros H. destruct n; try (destruct s1; first [apply mrel_ret | apply mrel_fail]);
    cbn [InterpRelProofs.okP] in H; autorewrite with Tdb; cbn [walk_node].
  - (* NFunc *) apply okP_all in H. pose proof (call_func_T name _ H). pose proof (loop_func_T name args). mr.
  - (* NListLit *) apply okP_all in H. pose proof (eval_list_T _ H). mr.
  - (* NMapLit *) pose proof (maplit_items_T _ (okP_all_kv okm _ H)). mr.
  - (* NDataRef *) apply okP_all in H. pose proof (dataref_access_T _ H). mr.
  - (* NNot *) pose proof (eval_T _ H). mr.
  - (* NNeg *) pose proof (evaldef_T _ H). mr.
  - (* NBin *) destruct H as [H1 H2]. pose proof (eval_T _ H1). pose proof (eval_T _ H2).
    pose proof (evaldef_T _ H1). pose proof (evaldef_T _ H2). destruct op; mr.
  - (* NTern *) destruct H as [H1 [H2 H3]]. pose proof (eval_T _ H1). pose proof (eval_T _ H2). pose proof (eval_T _ H3). mr.
  - (* NList *) apply okP_all in H. pose proof (walk_list_T _ H). mr.
  - (* NRawText *) mr.
  - (* NPrint *) destruct H as [Ha Hd]. apply okP_all in Hd. pose proof (Hw _ Ha). pose proof (print_dirs_T _ Hd).
    apply mrel_bind; [assumption|]. intros v. destruct v; try apply mrel_fail.
    all: apply mrel_bind; [solve [auto]|]; intros ds; apply mrel_bind; [apply mrel_lift|]; intros str;
      apply mrel_get_bind; intros t1 t2 He; rewrite (eqv_mode _ _ He); mr.
  - (* NCss *) destruct expr as [x|]; cbn [TO option_map]; [pose proof (eval_T _ H)|]; mr.
  - (* NLog *) pose proof (render_block_T _ H). mr.
  - (* NIf *) apply okP_all in H. apply if_conds_T, H.
  - (* NFor *) destruct H as [Hl [Hb Hi]]. pose proof (eval_T _ Hl). pose proof (for_items_T var _ Hb).
    apply mrel_bind; [assumption|]. intros lv. destruct lv; try apply mrel_fail.
    destruct l as [|x l]; [destruct ifempty as [ie|]; cbn [TO option_map]; [pose proof (Hw _ Hi)|]; mr | mr].
  - (* NSwitch *) destruct H as [Hv Hc]. apply okP_all in Hc. pose proof (eval_T _ Hv). pose proof (switch_cases_T). mr.
  - (* NCall *) destruct H as [Hd Hp]. apply okP_all in Hp.
    destruct (find_template (r_templates (c_reg cf)) name) as [callee|] eqn:E; [|apply mrel_fail].
    pose proof (find_template_okP cf okm Hreg _ _ E) as Hc.
    pose proof (call_data_T alldata data Hd). pose proof (call_params_T _ Hp). pose proof (call_enter_same callee). mr.
  - (* NLetValue *) pose proof (eval_T _ H). mr.
  - (* NLetContent *) pose proof (render_block_T _ H). mr.
  - (* NMsg *) destruct H as [_ Hb]. apply okP_all in Hb. pose proof (msg_body_T p _ Hb). mr.
  - (* NMsgHtmlTag *) mr.
  - (* NTemplate *) pose proof (Hw _ H).
    apply mrel_bind; [|intros _; mr].
    apply mrel_modify. intros t1 t2 He. rewrite (eqv_mode _ _ He). apply eqv_set_mode, He.
Qed.

Theorem walk_body_T n : okP n -> mrel (walk_body cf w1 (T s1 n)) (walk_body cf w2 (T s2 n)).
Proof.
  intros H. unfold walk_body. apply mrel_bind; [apply mrel_set_cur | intros _; apply walk_node_T, H].
Qed.
End Pos.

Section WalkPos.
Variable cf : cfg.
Variable okm : N -> list node -> Prop.
Hypothesis Hokm0 : forall body, okm 0 body.
Hypothesis Hreg : Forall (fun t => okP okm (t_node t)) (r_templates (c_reg cf)).

Lemma walk_refl_g f : forall n, okP okm n -> mrel (walk cf f n) (walk cf f n).
Proof.
  induction f as [|f IH]; intros n Hn; [apply mrel_fuel|].
  cbn [walk]. apply (walk_body_rel cf okm Hokm0 Hreg _ _ IH n Hn).
Qed.

Lemma walk_T f s : forall n, okP okm n -> mrel (walk cf f (T s n)) (walk cf f (T (negb s) n)).
Proof.
  induction f as [|f IH]; intros n Hn; [apply mrel_fuel|].
  cbn [walk]. apply (walk_body_T cf okm Hokm0 Hreg s _ _ (walk_refl_g f) IH n Hn).
Qed.

(* the walker renders the same code the same way, wherever it stands *)
Theorem walk_pos f b1 b2 :
  okP okm b1 -> okP okm b2 -> pstrip b1 = pstrip b2 -> mrel (walk cf f b1) (walk cf f b2).
Proof.
  intros H1 H2 E.
  eapply mrel_trans; [apply (walk_T f false b1 H1)|].
  change (T (negb false) b1) with (pstrip b1). rewrite E. apply (walk_T f true b2 H2).
Qed.
End WalkPos.
