(* Source tie, family 83-gotrans-quote, parse/quote.go quoteString: the whole function (the opening quote written into
   a one-element rune slice, the range over the RUNES of the string, the lookup in `escapes` with its ok, the two
   appends, the closing quote, string([]rune)) against Model/Quote.v's quote_string, with the function as gotrans
   translates it from the source of the tree under check.

   `escapes` is the map that init() fills as the inverse of the literal `unescapes`; gotrans emits it as
   src_parse_escapes (the inverse of the literal, after checking that init() is the only place that touches it and
   that the literal's values are distinct), and escape_of_matches_source ties the model's escapes_table to it.
   The range over the string is translated through utf8.DecodeRuneInString (a parameter, instantiated with
   Model/Utf8.v's decode_rune: st_dec); string([]rune) is the parameter instantiated with string_of_runes
   (st_string_runes).  The loop's fuel len(s)+1 is shown sufficient (every rune is at least one byte wide). *)
From Coq Require Import ZArith NArith Bool Lia ZifyBool List.
From Soy Require Import Model.Bytes Model.Num Model.Utf8 Model.NumLit Generated.Tables Model.Quote
  Proofs.BytesBase Proofs.SourceTieBase Proofs.SourceTieState Proofs.SourceTieUtf8 Proofs.SourceTieQuote Proofs.SourceTieUnquote.
Import ListNotations.
Open Scope N_scope.

(* escapes[ch] *)
Lemma escapes_table_matches_source (r : N) :
  option_map Z.of_N (assoc r escapes_table) = go_assoc_z (Z.of_N r) src_parse_escapes.
Proof.
  apply (assoc_z_ext Z.of_N Z.eqb); [exact Z_eqb_true|vm_compute; reflexivity|vm_compute; reflexivity].
Qed.

Lemma escape_of_matches_source (r : N) :
  match escape_of r with Some x => (Z.of_N x, true) | None => (0%Z, false) end =
  (go_lookup_z (Z.of_N r) src_parse_escapes 0%Z, go_has_z (Z.of_N r) src_parse_escapes).
Proof.
  unfold escape_of, go_lookup_z, go_has_z. rewrite <- escapes_table_matches_source.
  destruct (assoc r escapes_table); reflexivity.
Qed.

(* the loop: at byte index i (a rune boundary), q so far *)
Lemma quote_loop_matches (s : bstr) :
  st_small (go_len s) ->
  forall (m i : nat) (q : list Z) (w0 : Z) (fuel : nat),
    (length s - i <= m)%nat -> (i <= length s)%nat -> (m < fuel)%nat ->
    exists w' : Z,
      src_parse_quoteString_loop1 fuel st_dec s q (Z.of_nat i) w0 =
      Some (go_exit (q ++ map Z.of_N (quote_runes (runes (drop i s))), go_len s, w')).
Proof.
  intros Hs m. unfold st_small in Hs. induction m as [|m IH]; intros i q w0 fuel Hm Hi Hf.
  - assert (i = length s) as -> by lia. destruct fuel as [|fuel]; [lia|].
    cbn [src_parse_quoteString_loop1].
    rewrite drop_whole. replace (Z.ltb _ _) with false by (unfold go_len; lia).
    exists w0. cbn [runes runes_aux quote_runes map]. rewrite app_nil_r. reflexivity.
  - destruct (Nat.eq_dec i (length s)) as [->|Hne].
    { apply (IH (length s) q w0 fuel); lia. }
    destruct fuel as [|fuel]; [lia|]. cbn [src_parse_quoteString_loop1].
    replace (Z.ltb (Z.of_nat i) (go_len s)) with true by (unfold go_len; lia).
    rewrite st_go_slice_drop by lia. cbn [go_bind].
    destruct (st_rune_at s i) as (r & w & Ed & Edec & Hrne & Hw1 & Hw2 & Hs1); [lia|].
    rewrite (stq_runes_step _ Hrne), Edec, Ed. cbn [fst snd]. cbv beta iota zeta.
    rewrite !(st_wrap64 (Z.of_nat i + Z.of_nat w)) by (unfold go_len in *; lia).
    replace (Z.of_nat i + Z.of_nat w)%Z with (Z.of_nat (i + w)) by lia.
    rewrite Hs1. cbn [quote_runes].
    pose proof (escape_of_matches_source r) as He.
    (* the case is split on the MODEL's lookup; the source's lookup and its ok follow *)
    destruct (escape_of r) as [seq|]; injection He as Hlk Hok; rewrite <- Hlk, <- Hok; cbv iota;
      match goal with
      | |- context [src_parse_quoteString_loop1 fuel _ _ ?q1 _ _] =>
          destruct (IH (i + w)%nat q1 (Z.of_nat w) fuel) as [w' Hw']; try lia
      end;
      exists w'; rewrite Hw'; rewrite <- app_assoc; reflexivity.
Qed.

(* parse/quote.go quoteString, whole *)
Theorem quote_string_matches_source (s : bstr) :
  st_small (go_len s) ->
  src_parse_quoteString st_dec st_string_runes s = Some (quote_string s).
Proof.
  intros Hs. assert (Hs' := Hs). unfold st_small in Hs'.
  unfold src_parse_quoteString. cbn [go_set_nth go_bind]. cbv zeta.
  rewrite st_wrap64 by lia.
  destruct (quote_loop_matches s Hs (length s) 0 [39%Z] 0%Z (Z.to_nat (go_len s + 1))) as [w' Hl];
    try (unfold go_len; lia).
  change (Z.of_nat 0) with 0%Z in Hl.
  cbn [drop] in Hl.
  match goal with
  | |- context [go_set_nth ?l ?i ?v] => let r := eval vm_compute in (go_set_nth l i v) in change (go_set_nth l i v) with r
  end.
  cbn [go_bind]. rewrite Hl. f_equal.
  unfold st_string_runes, quote_string. f_equal.
  rewrite !map_app, map_map. cbn [map app].
  rewrite (map_ext (fun x => st_rune (Z.of_N x)) (fun x => x)) by (intro x; apply st_rune_of_N).
  rewrite map_id. reflexivity.
Qed.
