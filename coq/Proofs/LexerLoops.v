(* Progress lemmas for the scanning states of the lexer: each inner loop is shown, by induction on
   its own fuel, to leave through one of its exits before the fuel (remaining input + 1) runs out:
   every iteration consumes at least one byte or exits, and at end of input it exits.  The loops
   are proved in the budget form [loop_post B l] (LexerStates.v) with l the state at the loop head,
   so that the induction hypothesis composes by [loop_post_mono]. *)
From Soy Require Import Model.Bytes Model.Utf8 Model.Outcome Model.Token Generated.Tables Model.Lexer Proofs.LexerPrim Proofs.LexerStates.
From Coq Require Import ZifyBool Lia.
Open Scope Z_scope.

(* close a loop's recursive call: the induction hypothesis at the advanced state, weakened *)
Ltac recur IH :=
  eapply okp_weaken; [apply IH; [arith | assumption | arith] | intros ?; apply loop_post_mono; arith].

Section Loops.
Variable inp : bstr.
Notation ilen := (Z.of_nat (length inp)).
Variable base : Z.
Hypothesis base_nonneg : 0 <= base.
Notation inv := (inv inp base).
Notation loop_post := (loop_post inp base).
Notation lim := (Z.to_N (base + ilen)).

Lemma line_comment_loop_ok fuel : forall l, wf inp l -> items_ok lim false (l_out l) ->
  (Z.to_nat (ilen - l_pos l) < fuel)%nat ->
  okp (line_comment_loop inp ilen base fuel l) (loop_post 26 l).
Proof.
  induction fuel as [|f IH]; intros l Hw Hit Hf; [lia|]. cbn [line_comment_loop]. hstep.
  apply okp_if; intros E; [land|recur IH].
Qed.

Lemma lex_line_comment_ok l : inv LLineComment l -> okp (lex_line_comment inp ilen base l) (loop_post 26 l).
Proof. intros (Hw & Hit & _). apply line_comment_loop_ok; [exact Hw|exact Hit|apply loop_fuel_ok; destruct Hw; lia]. Qed.

Lemma block_comment_loop_ok fuel : forall star l, wf inp l -> items_ok lim false (l_out l) ->
  (Z.to_nat (ilen - l_pos l) < fuel)%nat ->
  okp (block_comment_loop inp ilen base fuel star l) (loop_post 12 l).
Proof.
  induction fuel as [|f IH]; intros star l Hw Hit Hf; [lia|]. cbn [block_comment_loop]. hstep.
  apply okp_if; intros E; [land|].
  apply okp_if; intros E2; [recur IH|].
  apply okp_if; intros E3; [land|recur IH].
Qed.

Lemma lex_block_comment_ok l : inv LBlockComment l -> okp (lex_block_comment inp ilen base l) (loop_post 12 l).
Proof. intros (Hw & Hit & _). apply block_comment_loop_ok; [exact Hw|exact Hit|apply loop_fuel_ok; destruct Hw; lia]. Qed.

Lemma string_loop_ok fuel : forall q l, wf inp l -> items_ok lim false (l_out l) ->
  (Z.to_nat (ilen - l_pos l) < fuel)%nat ->
  okp (string_loop inp ilen base fuel q l) (loop_post 12 l).
Proof.
  induction fuel as [|f IH]; intros q l Hw Hit Hf; [lia|]. cbn [string_loop]. hstep.
  apply okp_if; intros E; [land|].
  apply okp_if; intros E2; [hstep; recur IH|].
  apply okp_if; intros E3; [land|recur IH].
Qed.

Lemma lex_string_ok q l : inv (LString q) l -> okp (lex_string inp ilen base q l) (loop_post 12 l).
Proof. intros (Hw & Hit & _). apply string_loop_ok; [exact Hw|exact Hit|apply loop_fuel_ok; destruct Hw; lia]. Qed.

(* inl = the error return; inr = the state after reading the closing brace *)
Definition css_post (l : lx) (r : lstate * lx + lx) : Prop :=
  match r with
  | inl e => loop_post 10 l e
  | inr l1 => exists p t, l1 = scanned l p 1 t /\ l_pos l + 1 <= p <= ilen /\ l_ticks l <= t <= l_ticks l + (p - l_pos l)
  end.

Lemma css_loop_ok fuel : forall l, wf inp l -> items_ok lim false (l_out l) ->
  (Z.to_nat (ilen - l_pos l) < fuel)%nat ->
  okp (css_loop inp ilen base fuel l) (css_post l).
Proof.
  induction fuel as [|f IH]; intros l Hw Hit Hf; [lia|]. cbn [css_loop].
  eapply okp_bind; [apply next_read; arith|]. intros [r l1] (w & -> & H). unfold read in H.
  apply okp_if; intros E.
  - eapply okp_bind; [apply (errorf_lands inp base base_nonneg 10 _ l); [assumption|arith]|]. intros e He. exact He.
  - apply okp_if; intros E2.
    + assert (w = 1) as -> by lia. eexists _, _. split; [reflexivity|lia].
    + eapply okp_weaken; [apply IH; [arith|assumption|arith]|].
      intros [e|l2]; [apply loop_post_mono; arith|]. intros (p & t & -> & H2). lcbn in H2.
      exists p, t. split; [reflexivity|arith].
Qed.

Lemma lex_css_ok l : inv LCss l -> okp (lex_css inp ilen base l) (loop_post 12 l).
Proof.
  intros ((Hs & Hp) & Hit & _). unfold lex_css. hstep. cbv zeta.
  eapply okp_bind; [apply css_loop_ok; [arith|assumption|apply loop_fuel_ok; arith]|].
  intros [e|l3]; [apply loop_post_mono; arith|]. intros (p & t & -> & H3). lcbn in H3.
  hstep. hstep. hstep. land.
Qed.

(* `for isSpace(ch) { ch = l.next() }`; a ch that is eof is returned as it is *)
Definition lit_space_post (ch0 : Z) (l : lx) '((ch, l') : Z * lx) : Prop :=
  exists q w t, l' = scanned l q w t /\ l_pos l <= q <= ilen /\
    l_ticks l <= t <= l_ticks l + (q - l_pos l) + 1 /\ (ch0 < 0 -> t = l_ticks l /\ ch = ch0).

Lemma literal_space_loop_ok fuel : forall ch l, 0 <= l_pos l <= ilen ->
  (0 <= ch -> (Z.to_nat (ilen - l_pos l) + 1 < fuel)%nat) -> (0 < fuel)%nat ->
  okp (literal_space_loop inp ilen fuel ch l) (lit_space_post ch l).
Proof.
  induction fuel as [|f IH]; intros ch l Hp Hf H0; [lia|]. cbn [literal_space_loop].
  apply okp_if; intros E.
  - apply isSpace_nonneg in E. hstep.
    eapply okp_weaken; [apply IH; arith|]. intros [c2 l2] (q & w2 & t & -> & H2). lcbn in H2.
    exists q, w2, t. split; [reflexivity|lia].
  - exists (l_pos l), (l_width l), (l_ticks l). split; [apply scanned_id|lia].
Qed.

Lemma literal_lens : Z.of_nat (length literal_close1) = 1 + Z.of_nat (length literal_end_kw) + 1 /\
                     Z.of_nat (length literal_close2) = 2 + Z.of_nat (length literal_end_kw) + 2.
Proof. vm_compute. split; reflexivity. Qed.

(* from the search for the closing tag to the end of lexLiteral; [close] is "{/literal}" with d braces
   on either side *)
Lemma literal_tail_ok B l0 l (close : bstr) d :
  items_ok lim false (l_out l) ->
  Z.of_nat (length close) = d + Z.of_nat (length literal_end_kw) + d -> 0 <= d ->
  affords inp B 25 l0 l ->
  okp (tl <- slice inp ilen (l_pos l) ilen ;;
       match index_of close tl 0 with
       | None => errorf base e_literal_unclosed (tick l (ilen - l_pos l))
       | Some i =>
           let l4 := tick (set_pos l (l_pos l + i)) (i + Z.of_nat (length close)) in
           l5 <- emit inp ilen base itemText l4 ;;
           l6 <- emit inp ilen base itemLeftDelim (set_pos l5 (l_pos l5 + d)) ;;
           l7 <- emit inp ilen base itemLiteralEnd (set_pos l6 (l_pos l6 + Z.of_nat (length literal_end_kw))) ;;
           l8 <- emit inp ilen base itemRightDelim (set_pos l7 (l_pos l7 + d)) ;;
           Ok (LText, l8)
       end) (loop_post B l0).
Proof.
  intros Hit Hlen Hd H. hstep.
  destruct (index_of close _ 0) as [i|] eqn:Ei; [apply index_of_bound in Ei; cbv zeta; do 4 hstep|]; land.
Qed.

Lemma lex_literal_ok l : inv LLiteral l -> okp (lex_literal inp ilen base l) (loop_post 12 l).
Proof.
  intros ((Hs & Hp) & Hit & _). unfold lex_literal. hstep.
  eapply okp_bind; [apply literal_space_loop_ok; unfold loop_fuel; arith|].
  intros [ch l2] (q & w & t & -> & H2). lcbn in H2. cbn beta iota.
  apply okp_if; intros E; [land|]. hstep. hstep. cbv zeta.
  pose proof literal_lens as [C1 C2].
  destruct (l_dd (sent _ _));
    [apply literal_tail_ok with (d := 2)|apply literal_tail_ok with (d := 1)]; first [assumption|arith].
Qed.

End Loops.
