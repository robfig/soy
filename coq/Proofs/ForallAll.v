(* A proof for every element is a proof of Forall: what a nested induction principle (a type whose
   constructors hold lists of itself) passes to its list premises. *)
From Coq Require Import List.
Import ListNotations.

Definition Forall_all {A} (R : A -> Prop) (h : forall x, R x) : forall l, Forall R l :=
  fix go l := match l with [] => Forall_nil R | x :: r => Forall_cons x (h x) (go r) end.
