(* Source tie, family 78-gotrans-soyjs-scope (soyjs/scope.go): the naming functions of the JavaScript generator
   as Model/JsGen.v has them (the jsc_ functions), against the methods as gotrans translates them from the source of the tree under check, with the
   receiver's fields (stack, n) as explicit state.

   Go's stack grows at the end of the slice, the model's at the head of the list: the model's scope is the Go stack
   reversed.  Go's int arithmetic wraps at 2^63; every lemma that goes through `len(s.stack)-1` or `s.n++` carries the
   corresponding bound (a stack or a counter below 2^62), which is what keeps the translation's go_wrap_s the
   identity. *)
From Coq Require Import ZArith NArith Bool Lia ZifyBool List.
From Soy Require Import Model.Bytes Model.Outcome Generated.Tables Model.JsGen Proofs.SourceTieBase.
From Soy Require Import Proofs.SourceTieState.
Import ListNotations.
Open Scope N_scope.

Lemma go_map_set_s_aset {A} (k : bstr) (v : A) (m : list (bstr * A)) : go_map_set_s k v m = aset m k v.
Proof.
  induction m as [|[k' v'] r IH]; cbn [go_map_set_s aset]; [reflexivity|]. rewrite IH. reflexivity.
Qed.

(* ---- push / pop ---- *)
Theorem jsc_push_matches_source (st : jstate) :
  jsc_push st = Ok (tt, set_scope (rev (src_soyjs_scope_push (rev (j_scope st)))) (j_n st) st).
Proof.
  unfold jsc_push, jmod, src_soyjs_scope_push. cbv zeta. rewrite rev_app_distr, rev_involutive. reflexivity.
Qed.

(* pop of an empty stack panics in Go (s.stack[:-1]); the model's [tl] would answer the empty stack, so the lemma
   is about the states the generator is in when it pops: after a push *)
Theorem jsc_pop_matches_source (st : jstate) (f : list (bstr * bstr)) (r : list (list (bstr * bstr))) :
  j_scope st = f :: r -> st_small (go_len (f :: r)) ->
  match src_soyjs_scope_pop (rev (j_scope st)) with
  | Some s' => jsc_pop st = Ok (tt, set_scope (rev s') (j_n st) st)
  | None => False
  end.
Proof.
  intros E Hs. unfold src_soyjs_scope_pop. rewrite E. rewrite st_go_len_rev.
  rewrite st_wrap64 by (unfold st_small in Hs; lia).
  rewrite go_slice_l_pop. cbn [go_bind]. rewrite rev_involutive.
  unfold jsc_pop, jmod. rewrite E. reflexivity.
Qed.

Theorem pop_empty_panics_in_source : src_soyjs_scope_pop [] = None.
Proof. reflexivity. Qed.

(* ---- genname / bind / makevar ---- *)
Theorem jsc_genname_matches_source (v : bstr) (st : jstate) :
  st_small (Z.of_N (j_n st)) ->
  let '(n', g) := src_soyjs_scope_genname (Z.of_N (j_n st)) v in
  jsc_genname v st = Ok (g, set_scope (j_scope st) (Z.to_N n') st) /\ n' = Z.of_N (j_n st + 1).
Proof.
  intros Hs. unfold src_soyjs_scope_genname. repeat progress autounfold with src_helpers. cbv beta iota zeta.
  rewrite st_wrap64 by (unfold st_small in Hs; lia).
  replace (Z.of_N (j_n st) + 1)%Z with (Z.of_N (j_n st + 1)) by lia.
  rewrite st_dec_of_Z_of_N, N2Z.id. split; [|reflexivity].
  unfold jsc_genname, jbind, jget, jmod, jret, t_us. cbn. rewrite <- ?app_assoc. reflexivity.
Qed.

Theorem jsc_bind_matches_source (v g : bstr) (st : jstate) :
  st_small (go_len (j_scope st)) ->
  match src_soyjs_scope_bind (rev (j_scope st)) v g with
  | Some s' => jsc_bind v g st = Ok (tt, set_scope (rev s') (j_n st) st)
  | None => jsc_bind v g st = Crash je_args          (* s.stack[len(s.stack)-1] on an empty stack *)
  end.
Proof.
  intros Hs. unfold src_soyjs_scope_bind. rewrite st_go_len_rev.
  rewrite st_wrap64 by (unfold st_small in Hs; lia).
  unfold jsc_bind, jbind, jget. destruct (j_scope st) as [|f r] eqn:E.
  - reflexivity.
  - rewrite go_index_top. cbn [go_bind].
    rewrite go_set_nth_top. cbn [go_bind]. rewrite rev_involutive, go_map_set_s_aset. reflexivity.
Qed.

(* ---- lookup ---- *)
Fixpoint st_jsc_find (s : list (list (bstr * bstr))) (v : bstr) : option bstr :=
  match s with
  | [] => None
  | f :: r => match assoc_s v f with Some g => Some g | None => st_jsc_find r v end
  end.

Lemma st_jsc_lookup_find s v : jsc_lookup s v = match st_jsc_find s v with Some g => g | None => [] end.
Proof. induction s as [|f r IH]; cbn [jsc_lookup st_jsc_find]; [reflexivity|]. destruct (assoc_s v f); [reflexivity|exact IH]. Qed.

(* scope.lookup walks s.stack from its end; gotrans (gotrans_norm.go: revRange) translates every spelling of such a walk
   (`for i := range xs {.. xs[len(xs)-i-1] ..}`, `for i := len(xs)-1; i >= 0; i--`, `for d := len(xs); d > 0; d--
   {.. xs[d-1] ..}`) as ONE list loop over `rev xs`, so the lemma is an induction on the model's stack. *)
Lemma lookup_loop_matches (s : list (list (bstr * bstr))) (v : bstr) :
  src_soyjs_scope_lookup_loop1 s v =
  Some (match st_jsc_find s v with Some g => go_ret g | None => go_exit tt end).
Proof.
  induction s as [|f r IH]; [reflexivity|].
  cbn [src_soyjs_scope_lookup_loop1 st_jsc_find]. cbv zeta. try unfold go_has_s. try unfold go_lookup_s.
  destruct (assoc_s v f) as [g|]; [reflexivity|exact IH].
Qed.

Theorem jsc_lookup_matches_source (s : list (list (bstr * bstr))) (v : bstr) :
  st_small (go_len s) -> src_soyjs_scope_lookup (rev s) v = Some (jsc_lookup s v).
Proof.
  intros _. unfold src_soyjs_scope_lookup. cbv zeta. rewrite rev_involutive, lookup_loop_matches, st_jsc_lookup_find.
  destruct (st_jsc_find s v); reflexivity.
Qed.

(* ---- makevar = genname + bind ---- *)
Theorem jsc_makevar_matches_source (v : bstr) (st : jstate) :
  st_small (Z.of_N (j_n st)) -> st_small (go_len (j_scope st)) ->
  match src_soyjs_scope_makevar (rev (j_scope st)) (Z.of_N (j_n st)) v with
  | Some (s', n', g) => jsc_makevar v st = Ok (g, set_scope (rev s') (Z.to_N n') st)
  | None => jsc_makevar v st = Crash je_args
  end.
Proof.
  intros Hn Hs. unfold src_soyjs_scope_makevar.
  pose proof (jsc_genname_matches_source v st Hn) as G.
  destruct (src_soyjs_scope_genname (Z.of_N (j_n st)) v) as [n' g]. destruct G as [G ->].
  pose proof (jsc_bind_matches_source v g (set_scope (j_scope st) (Z.to_N (Z.of_N (j_n st + 1))) st)) as B.
  cbn [j_scope set_scope j_n] in B. specialize (B Hs).
  unfold jsc_makevar, jbind. rewrite G.
  destruct (src_soyjs_scope_bind (rev (j_scope st)) v g) as [s'|]; cbn [go_bind]; rewrite B; reflexivity.
Qed.

(* ---- the loop frames: pushForRange / pushForEach (this is where the hidden keys .var / .limit / .index and the
   name pieces Init / Step / Limit / Index / List of Model/JsGen.v meet the source's) ---- *)
Theorem jsc_push_for_range_matches_source (v : bstr) (st : jstate) :
  st_small (Z.of_N (j_n st)) ->
  let '(s', n', a, b0, c, d, e) := src_soyjs_scope_pushForRange (rev (j_scope st)) (Z.of_N (j_n st)) v in
  jsc_push_for_range v st = Ok ((a, b0, c, d, e), set_scope (rev s') (Z.to_N n') st).
Proof.
  intros Hn. unfold src_soyjs_scope_pushForRange. repeat progress autounfold with src_helpers. cbv beta iota zeta.
  rewrite st_wrap64 by (unfold st_small in Hn; lia).
  replace (Z.of_N (j_n st) + 1)%Z with (Z.of_N (j_n st + 1)) by lia.
  rewrite st_dec_of_Z_of_N, N2Z.id, rev_app_distr, rev_involutive. rewrite !go_map_set_s_aset.
  unfold jsc_push_for_range, jbind, jget, jmod, jret. cbv zeta.
  unfold jk_var, jk_limit, jk_index, t_us, t_limit, t_index, t_init, t_step. cbn [rev app].
  rewrite <- ?app_assoc. cbn [app]. reflexivity.
Qed.

Theorem jsc_push_for_each_matches_source (v : bstr) (st : jstate) :
  st_small (Z.of_N (j_n st)) ->
  let '(s', n', a, b0, c, d) := src_soyjs_scope_pushForEach (rev (j_scope st)) (Z.of_N (j_n st)) v in
  jsc_push_for_each v st = Ok ((a, b0, c, d), set_scope (rev s') (Z.to_N n') st).
Proof.
  intros Hn. unfold src_soyjs_scope_pushForEach. repeat progress autounfold with src_helpers. cbv beta iota zeta.
  rewrite st_wrap64 by (unfold st_small in Hn; lia).
  replace (Z.of_N (j_n st) + 1)%Z with (Z.of_N (j_n st + 1)) by lia.
  rewrite st_dec_of_Z_of_N, N2Z.id, rev_app_distr, rev_involutive. rewrite !go_map_set_s_aset.
  unfold jsc_push_for_each, jbind, jget, jmod, jret. cbv zeta.
  unfold jk_var, jk_limit, jk_index, t_us, t_limit, t_index, t_list. cbn [rev app].
  rewrite <- ?app_assoc. cbn [app]. reflexivity.
Qed.

(* ---- loop: index and limit of the innermost loop frame for a variable ---- *)
Definition st_frame_hit (f : list (bstr * bstr)) (v : bstr) : option (bstr * bstr) :=
  let get k := match assoc_s k f with Some x => x | None => [] end in
  if bstr_eqb (get jk_var) v && negb (match get jk_index with [] => true | _ => false end)
  then Some (get jk_index, get jk_limit) else None.

Fixpoint st_loop_find (s : list (list (bstr * bstr))) (v : bstr) : option (bstr * bstr) :=
  match s with
  | [] => None
  | f :: r => match st_frame_hit f v with Some p => Some p | None => st_loop_find r v end
  end.

Lemma st_jsc_loop_find s v : jsc_loop s v = match st_loop_find s v with Some p => p | None => ([], []) end.
Proof.
  induction s as [|f r IH]; cbn [jsc_loop st_loop_find]; [reflexivity|]. unfold st_frame_hit. cbv zeta.
  destruct (_ && _); [reflexivity|exact IH].
Qed.

Lemma loop_loop_matches (s : list (list (bstr * bstr))) (v : bstr) :
  src_soyjs_scope_loop_loop1 s v =
  Some (match st_loop_find s v with Some p => go_ret p | None => go_exit tt end).
Proof.
  induction s as [|f r IH]; [reflexivity|].
  cbn [src_soyjs_scope_loop_loop1 st_loop_find]. cbv zeta. unfold st_frame_hit. try unfold go_lookup_s. cbv zeta.
  rewrite ?bstr_eqb_nil_r. unfold jk_var, jk_index, jk_limit.
  (* the cases are split on the MODEL's side: the frame's entries for the two hidden keys, the comparison with v *)
  let kv := eval unfold jk_var in jk_var in destruct (assoc_s kv f) as [x|];
  (let ki := eval unfold jk_index in jk_index in destruct (assoc_s ki f) as [[|c t]|]);
  destruct (bstr_eqb _ v); cbn [andb orb negb]; first [reflexivity|exact IH].
Qed.

Theorem jsc_loop_matches_source (s : list (list (bstr * bstr))) (v : bstr) :
  st_small (go_len s) -> src_soyjs_scope_loop (rev s) v = Some (jsc_loop s v).
Proof.
  intros _. unfold src_soyjs_scope_loop. cbv zeta. rewrite rev_involutive, loop_loop_matches, st_jsc_loop_find.
  destruct (st_loop_find s v); reflexivity.
Qed.
