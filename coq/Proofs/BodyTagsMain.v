(* C15, template level, bodies with print commands among the tags (Spec/TextTags.v): scanner model and parser
   model composed.  Scanner: Proofs/LexBodyTags.v.  Parser: the run on the items with the print commands'
   positions erased (Proofs/ParseBodyTags.v: out of budget, or the Spec's reading), the totality of the entry point
   (Proofs/ParserProofs.v: never out of budget), and the position independence of successful runs
   (Proofs/CmdParserStripMain.v) back to the scanner's own items. *)
From Soy Require Import Model.Bytes Model.Outcome Model.Ast Model.Token Model.AstPrint Model.ExprParser Model.Parser Model.Lexer Spec.Text Spec.TextTags Spec.ExprSyntax
  Proofs.RawTextProofs Proofs.ExprParserRules Proofs.LexTokens Proofs.LexerProofs Proofs.LexParseBridge Proofs.ParserProofs
  Proofs.LexBodyText Proofs.ParseBodyText Proofs.CmdParserStripDefs Proofs.CmdParserStripMain Proofs.BodyTagsShape Proofs.LexBodyTags
  Proofs.ParseBodyTags.
From Coq Require Import Lia.
Open Scope N_scope.

(* the Spec's reading of the rest of a body, through the pieces of its stretches *)
Lemma c15_rest_out_pieces : forall rest o, c15_rest_out rest = Some o ->
  exists rp, c15_rest_pieces rest rp /\ gs_rest_out rp = o.
Proof.
  induction rest as [|[tg T] r IH]; intros o H.
  - cbn [c15_rest_out] in H. injection H as <-. exists []. split; [exact I|reflexivity].
  - cbn [c15_rest_out] in H. unfold body_text in H. destruct (pieces MText false [] T) as [pcs|] eqn:Hp; [|discriminate].
    destruct (c15_rest_out r) as [o'|] eqn:Hr; [|discriminate].
    destruct (IH o' eq_refl) as (rp & Hrp & Ho). exists ((tg, pcs) :: rp). split; [cbn [c15_rest_pieces]; auto|].
    cbn [gs_rest_out]. rewrite Ho. destruct tg as [[n tx]|n txt]; injection H as <-; reflexivity.
Qed.

(* c15_body_out (start = true) and c15_tpl_out (start = false), through the pieces *)
Lemma c15_out_pieces start T0 rest out :
  match body_text start T0, c15_rest_out rest with Some t, Some o => Some (t ++ fst o, snd o) | _, _ => None end = Some out ->
  exists pcs rp, pieces MText start [] T0 = Some pcs /\ c15_rest_pieces rest rp /\ gs_out false pcs rp = out.
Proof.
  unfold body_text. destruct (pieces MText start [] T0) as [pcs|]; [|discriminate].
  destruct (c15_rest_out rest) as [o'|] eqn:Hr; [|discriminate]. intros H. injection H as <-.
  destruct (c15_rest_out_pieces rest o' Hr) as (rp & Hrp & Ho). exists pcs, rp. unfold gs_out. rewrite Ho. auto.
Qed.

Lemma c15_rest_tags_wf : forall rest rp, Forall (fun sg : c15_tseg => c15_tag_ok print_node (fst sg) /\ plain (snd sg)) rest ->
  c15_rest_pieces rest rp -> tags_wf rp.
Proof.
  induction rest as [|[tg T] r IH]; intros rp Hok Hrp; destruct rp as [|[tg' pcs] rp']; try contradiction; [constructor|].
  destruct Hrp as (-> & Hp & Hrp'). inversion Hok as [|? ? [Htg Hpl] Hok']; subst. cbn [fst snd] in *.
  constructor; [|exact (IH rp' Hok' Hrp')]. split; [exact (pieces_no_nul _ _ _ Hpl Hp)|].
  destruct tg as [c|n txt]; [exact I|exact (proj1 Htg)].
Qed.

Lemma c15_rest_ok_all : forall rest, c15_rest_ok print_node rest ->
  Forall (fun sg : c15_tseg => c15_tag_ok print_node (fst sg) /\ plain (snd sg)) rest.
Proof. induction rest as [|[tg T] r IH]; [constructor|]. intros (Htg & [Hpl _] & Hr). constructor; [split; assumption|exact (IH Hr)]. Qed.

Section Main.
Variable inlen : N.
Variable lexq : bstr -> list tok.
Variable unq : bstr -> option bstr.
Hypothesis Hq : lexq_wf lexq.

(* parse.SoyFile on [items], from a run on items [items0] that differ from them in positions only: the run is
   never out of budget (totality of the entry point), and a successful run is independent of the positions *)
Lemma soy_file_erased (Q : node -> Prop) items0 items F : F = file_fuel items0 ->
  map strip_tok items0 = map strip_tok items -> items_wf inlen items0 -> length items0 = length items ->
  (item_list inlen lexq unq parse_expr expr_fuel F u_eof (cst_init items0) = CFuel \/
   exists x0 s', item_list inlen lexq unq parse_expr expr_fuel F u_eof (cst_init items0) = COk x0 s' /\ Q x0) ->
  exists x x0 st, po_result (soy_file inlen lexq unq items) = POk x st /\ cps_strip x0 = cps_strip x /\ Q x0.
Proof.
  intros -> Hst Hw0 Hlen Hrun. pose proof (soy_file_total inlen lexq unq Hq items0 Hw0) as Ht.
  unfold soy_file, parse_file, file_fuel in *. rewrite <- Hlen.
  destruct Hrun as [Hfu|(x0 & s' & Hrun & HQ)]; [exfalso; rewrite Hfu in Ht; exact Ht|].
  destruct (cps_body inlen inlen lexq unq expr_fuel cps_expr_fuel _ u_eof items0 items x0 s' Hst Hrun) as (x & s2 & Hrun2 & Hx).
  rewrite Hrun2. cbn [po_result]. eauto 6.
Qed.

Lemma soy_file_tags_nodes pcs rp items : c15_gshape c15_X1 pcs rp items -> items_wf inlen items -> Forall no_nul pcs -> tags_wf rp ->
  exists pos nodes st, po_result (soy_file inlen lexq unq items) = POk (NList pos nodes) st /\
     c15_view0 (map cps_strip nodes) = gs_out false pcs rp.
Proof.
  intros Hsh Hw Hn0 Hnr.
  destruct (gshape_erase inlen pcs rp items Hsh Hw) as (items0 & Hsh0 & Hst & Hw0 & Hlen).
  destruct (stream_init items0) as [Hs Hi].
  destruct (soy_file_erased (fun x => exists pos nodes, x = NList pos nodes /\ c15_view0 (map cps_strip nodes) = gs_out false pcs rp)
              items0 items (S (length items0 + 7)) ltac:(unfold file_fuel; lia) Hst Hw0 Hlen) as (x & x0 & st & Hr & Hx & pos & nodes & -> & Hv).
  - cbn [item_list].
    destruct (gshape_run inlen lexq unq (length items0 + 7) pcs rp items0 Hsh0 Hn0 Hnr [] ltac:(constructor) (S (length items0 + 7)) [] None (cst_init items0)
                Hs Hi ltac:(cbn [app]; lia) ltac:(lia)) as [Hfu|(pos & nodes & s' & Hrun & Hv)]; [left; exact Hfu|right].
    exists (NList pos nodes), s'. split; [exact Hrun|eauto].
  - destruct x; cbn [cps_strip] in Hx; try discriminate Hx. injection Hx as Hx.
    eexists _, _, _. split; [exact Hr|]. rewrite <- Hx. exact Hv.
Qed.

End Main.

Section Top.
Variable uni_letter uni_digit : Z -> bool.
Hypothesis letter_ascii : forall c, (c < 128)%N -> uni_letter (Z.of_N c) = ((65 <=? c) && (c <=? 90) || (97 <=? c) && (c <=? 122))%N.
Hypothesis digit_ascii : forall c, (c < 128)%N -> uni_digit (Z.of_N c) = digit_b c.
Hypothesis letter_eof : uni_letter (-1)%Z = false.
Hypothesis digit_eof : uni_digit (-1)%Z = false.
Variable lexq : bstr -> list tok.
Variable unq : bstr -> option bstr.
Hypothesis Hq : lexq_wf lexq.

(* body_text_spec with print commands among the tags *)
Theorem body_tags_impl_spec T0 rest out : c15_body_ok print_node T0 rest -> c15_lex_oks rest -> c15_body_out T0 rest = Some out ->
  exists items pos nodes st,
    lex_items uni_letter uni_digit (lex_budget (c15_body_src T0 rest)) false (c15_body_src T0 rest) = Ok items /\
    po_result (soy_file (N.of_nat (length (c15_body_src T0 rest))) lexq unq items) = POk (NList pos nodes) st /\
    c15_view0 (map cps_strip nodes) = out.
Proof.
  intros Hok Hlx Hout. destruct (c15_out_pieces true T0 rest out Hout) as (pcs & rp & Hp & Hrp & <-).
  destruct (lex_body_tags uni_letter uni_digit letter_ascii digit_ascii letter_eof digit_eof T0 rest pcs rp Hok Hlx Hp Hrp) as (items & Hlex & Hsh).
  destruct Hok as [[Hpl0 _] Hrok].
  destruct (soy_file_tags_nodes _ lexq unq Hq pcs rp items Hsh (lex_items_wf _ _ letter_eof digit_eof _ _ Hlex) (pieces_no_nul _ _ _ Hpl0 Hp)
              (c15_rest_tags_wf rest rp (c15_rest_ok_all rest Hrok) Hrp)) as (pos & nodes & st & A & B).
  exists items, pos, nodes, st. auto.
Qed.

End Top.
