(* The tree walker does not look at node positions of expressions: s.node (the state's [cur]) is written by
   every walk step and read by nobody but error reporting.  Two states that agree on every field but [cur]
   are taken to such states, with the same outcome, (1) by the walker on the same tree -- every node kind --
   and (2) by the walker on an expression tree and on the same tree with all positions erased.
   Instance of the relational walker principle of Proofs/InterpRel.v. *)
From Soy Require Import Model.Bytes Model.Num Model.Values Model.Outcome Model.Ast
  Model.Escape Model.Directives Model.Print Generated.Tables Model.Interp Spec.ExprSyntax
  Proofs.InterpLogic Proofs.InterpGuard Proofs.InterpRel Proofs.ExprParserProofs.
Require Import Lia.
Open Scope N_scope.

(* equal but for [cur] *)
Definition eqc (a b : mstate) : Prop :=
  ctx a = ctx b /\ mode a = mode b /\ tmpl a = tmpl b /\ depth_ a = depth_ b /\ out a = out b /\ bufs a = bufs b /\
  calls_left a = calls_left b /\ bytes_left a = bytes_left b /\ next_id a = next_id b /\ unbound a = unbound b /\
  shared_writes a = shared_writes b.

Definition PhiC {A} (m1 m2 : M A) : Prop :=
  forall a b, eqc a b -> fst (m1 a) = fst (m2 b) /\ eqc (snd (m1 a)) (snd (m2 b)).

Ltac eqc_open H :=
  let H1 := fresh in let H2 := fresh in let H3 := fresh in let H4 := fresh in let H5 := fresh in let H6 := fresh in
  let H7 := fresh in let H8 := fresh in let H9 := fresh in let H10 := fresh in let H11 := fresh in
  destruct H as (H1 & H2 & H3 & H4 & H5 & H6 & H7 & H8 & H9 & H10 & H11).

Ltac eqc_solve := unfold eqc; cbn; repeat split; congruence.

(* a state function that neither reads nor writes [cur] *)
Ltac prim :=
  let a := fresh "a" in let b := fresh "b" in let H := fresh "H" in
  intros a b H; destruct a, b; unfold eqc in H; cbn in H; eqc_open H; subst.

Lemma eqc_refl a : eqc a a. Proof. unfold eqc. repeat split. Qed.

Lemma PhiC_bind {A B} (m1 m2 : M A) (f1 f2 : A -> M B) :
  PhiC m1 m2 -> (forall x, PhiC (f1 x) (f2 x)) -> PhiC (mbind m1 f1) (mbind m2 f2).
Proof.
  intros Hm Hf a b H. unfold mbind. specialize (Hm a b H). destruct (m1 a) as [r1 s1], (m2 b) as [r2 s2]. cbn [fst snd] in Hm.
  destruct Hm as [-> He]. destruct r2; try (split; [reflexivity|exact He]). apply Hf. exact He.
Qed.

Lemma eqc_set_cur a b p q : eqc a b -> eqc (set_cur a p) (set_cur b q).
Proof. intros H. destruct a, b. unfold eqc in *. cbn in *. exact H. Qed.
Lemma eqc_pushed a b : eqc a b -> eqc (pushed a) (pushed b).
Proof. intros H. destruct a, b. unfold eqc, pushed in *. cbn in *. eqc_open H. subst. repeat split. Qed.
Lemma eqc_popped a b : eqc a b -> eqc (popped a) (popped b).
Proof. intros H. destruct a, b. unfold eqc, popped in *. cbn in *. eqc_open H. subst. repeat split. Qed.
Lemma eqc_buf_pushed a b : eqc a b -> eqc (buf_pushed a) (buf_pushed b).
Proof. intros H. destruct a, b. unfold eqc, buf_pushed in *. cbn in *. eqc_open H. subst. repeat split. Qed.
Lemma eqc_set_bufs a b r : eqc a b -> eqc (set_bufs a r) (set_bufs b r).
Proof. intros H. destruct a, b. unfold eqc in *. cbn in *. eqc_open H. subst. repeat split. Qed.
Lemma eqc_entered a b callee cd : eqc a b -> eqc (entered a callee cd) (entered b callee cd).
Proof. intros H. destruct a, b. unfold eqc, entered in *. cbn in *. eqc_open H. subst. repeat split. Qed.
Lemma eqc_left a b a' b' : eqc a b -> eqc a' b' -> eqc (left a a') (left b b').
Proof. intros H H'. destruct a, b, a', b'. unfold eqc, left in *. cbn in *. eqc_open H. eqc_open H'. subst. repeat split. Qed.
Lemma eqc_bufs a b : eqc a b -> bufs a = bufs b. Proof. intros H. eqc_open H. assumption. Qed.

Lemma PhiC_logic : walker_logic_r (fun _ => true) (@PhiC) (@PhiC value) (fun _ _ => True).
Proof.
  constructor.
  - intros A m1 m1' m2 m2' H1 H2 H a b He. rewrite <- H1, <- H2. apply H. exact He.
  - intros A x a b H. split; [reflexivity|exact H].
  - intros A e a b H. split; [reflexivity|exact H].
  - intros A o _ a b H. split; [reflexivity|exact H].
  - intros A B m1 m2 f1 f2. apply PhiC_bind.
  - intros p a b H. split; [reflexivity|]. cbn. apply eqc_set_cur. exact H.
  - intros p name body ae priv _. prim. split; [reflexivity|eqc_solve].
  - intros w. prim. unfold write. cbn.
    destruct bufs0 as [|bf rest]; [|split; [reflexivity|eqc_solve]].
    destruct calls_left0 as [[|k]|]; try (split; [reflexivity|eqc_solve]);
      (destruct bytes_left0 as [kb|]; [destruct (N.of_nat (length w) <=? kb)|]; split; try reflexivity; eqc_solve).
  - intros k v. prim. unfold m_set. cbn. destruct ctx0 as [|fr rs]; [split; [reflexivity|eqc_solve]|].
    destruct (sc_top_origin (fr :: rs)); split; try reflexivity; eqc_solve.
  - intros k. prim. unfold m_lookup. cbn. destruct (sc_lookup ctx0 k); split; try reflexivity; eqc_solve.
  - intros l. prim. unfold fresh_list. destruct l; split; try reflexivity; eqc_solve.
  - intros l. prim. unfold fresh_list_or_nil. destruct l; split; try reflexivity; eqc_solve.
  - intros m. prim. unfold fresh_map. split; [reflexivity|eqc_solve].
  - intros B f1 f2 Hf a b H.
    change ((st <-- get ;;; f1 (mode st)) a) with (f1 (mode a) a).
    change ((st <-- get ;;; f2 (mode st)) b) with (f2 (mode b) b).
    assert (E : mode a = mode b) by (eqc_open H; assumption). rewrite E. apply Hf. exact H.
  - intros B f1 f2 Hf a b H.
    change ((st <-- get ;;; f1 (ctx st)) a) with (f1 (ctx a) a).
    change ((st <-- get ;;; f2 (ctx st)) b) with (f2 (ctx b) b).
    assert (E : ctx a = ctx b) by (eqc_open H; assumption). rewrite E. apply Hf. exact H.
  - intros m1 m2 Hm a b H. rewrite !scoped_eq.
    destruct (Hm (pushed a) (pushed b) (eqc_pushed _ _ H)) as [E He]. rewrite E.
    destruct (classify (fst (m2 (pushed b)))); (split; [reflexivity|]); [apply eqc_popped|]; exact He.
  - intros w1 w2 e Hw a b H. rewrite !eval_eq.
    destruct (Hw a b H) as [E He]. rewrite E.
    destruct (classify (fst (w2 e b))); (split; [reflexivity|]); [apply eqc_set_cur|]; exact He.
  - intros w1 w2 body Hw a b H. rewrite !render_block_eq.
    destruct (Hw (buf_pushed a) (buf_pushed b) (eqc_buf_pushed _ _ H)) as [E He]. rewrite E.
    destruct (classify (fst (w2 body (buf_pushed b)))); [|split; [reflexivity|exact He]].
    cbn zeta. rewrite (eqc_bufs _ _ He). destruct (bufs (snd (w2 body (buf_pushed b)))); (split; [reflexivity|]); [exact He|apply eqc_set_bufs; exact He].
  - intros w1 w2 callee cd Hw a b H. rewrite !call_enter_eq. cbn zeta.
    destruct (Hw (entered a callee cd) (entered b callee cd) (eqc_entered _ _ _ _ H)) as [E He]. rewrite E.
    split; [reflexivity|]. apply eqc_left; assumption.
Qed.

Lemma trivial_sites : pure_sites (fun _ _ => True).
Proof. constructor; intros; exact I. Qed.

Section Walk.
Variable cf : cfg.

(* (1) the walker respects "equal but for cur", on every node *)
Theorem walk_eqc : forall fuel n, PhiC (walk cf fuel n) (walk cf fuel n).
Proof.
  induction fuel as [|f IH]; intros n.
  - intros a b H. split; [reflexivity|exact H].
  - rewrite walk_S.
    apply (rphi_walk_body_all cf _ _ _ PhiC_logic trivial_sites); intros; apply IH.
Qed.

Definition is_expr (n : node) : bool :=
  match n with
  | NNull _ | NBool _ _ | NInt _ _ | NFloat _ _ | NString _ _ _ | NGlobal _ _ _ | NFunc _ _ _ | NListLit _ _ | NMapLit _ _
  | NDataRef _ _ _ | NAccIndex _ _ _ | NAccKey _ _ _ | NAccExpr _ _ _ | NNot _ _ | NNeg _ _ | NBin _ _ _ _ | NTern _ _ _ _ => true
  | _ => false
  end.
Definition expr_tree (n : node) : bool := deep is_expr n.

(* one unfolding of the walker on a position-free copy: the recursive calls go to the copies of the children *)
Section Copy.
Variables w w' : node -> M value.
Hypothesis Hww : forall c, expr_tree c = true -> forall st, w' c st = w (strip_pos c) st.

Lemma eval_copy e : expr_tree e = true -> forall st, eval w' e st = eval w (strip_pos e) st.
Proof. intros He st. rewrite !eval_eq, (Hww e He). reflexivity. Qed.

Lemma mbind_ext {A B} (m1 m2 : M A) (f1 f2 : A -> M B) st :
  m1 st = m2 st -> (forall x st', f1 x st' = f2 x st') -> mbind m1 f1 st = mbind m2 f2 st.
Proof. intros Hm Hf. unfold mbind. rewrite Hm. destruct (m2 st) as [[] s]; try reflexivity. apply Hf. Qed.

Lemma evaldef_copy e : expr_tree e = true -> forall st, evaldef w' e st = evaldef w (strip_pos e) st.
Proof. intros He st. unfold evaldef. apply mbind_ext; [apply eval_copy; exact He|reflexivity]. Qed.

Lemma eval_list_copy es : forallb expr_tree es = true -> forall st, eval_list w' es st = eval_list w (map strip_pos es) st.
Proof.
  induction es as [|e r IH]; intros H st; [reflexivity|]. cbn [forallb] in H. apply Bool.andb_true_iff in H. destruct H as [H1 H2].
  cbn [eval_list map]. apply mbind_ext; [apply eval_copy; exact H1|]. intros v st'. apply mbind_ext; [apply IH; exact H2|reflexivity].
Qed.

Lemma maplit_copy l : forallb (fun kv => expr_tree (snd kv)) l = true ->
  forall st, maplit_items w' l st = maplit_items w (map (fun kv => (fst kv, strip_pos (snd kv))) l) st.
Proof.
  induction l as [|[k e] r IH]; intros H st; [reflexivity|]. cbn [forallb snd] in H. apply Bool.andb_true_iff in H. destruct H as [H1 H2].
  cbn [maplit_items map fst snd]. apply mbind_ext; [apply eval_copy; exact H1|]. intros v st'. apply mbind_ext; [apply IH; exact H2|reflexivity].
Qed.

Lemma dataref_copy acc : forallb expr_tree acc = true ->
  forall ref st, dataref_access w' acc ref st = dataref_access w (map strip_pos acc) ref st.
Proof.
  induction acc as [|a r IH]; intros H ref st; [reflexivity|]. cbn [forallb] in H. apply Bool.andb_true_iff in H. destruct H as [H1 H2].
  cbn [dataref_access map]. apply mbind_ext.
  - destruct a; try reflexivity. cbn [strip_pos]. apply mbind_ext; [|reflexivity]. apply eval_copy.
    unfold expr_tree in *. cbn [deep] in H1. apply Bool.andb_true_iff in H1. tauto.
  - intros [oi k] st'. assert (Ens : is_nullsafe (strip_pos a) = is_nullsafe a) by (destruct a; reflexivity). rewrite Ens.
    destruct ref; try reflexivity; destruct oi; try reflexivity; apply IH; exact H2.
Qed.

Lemma walk_node_copy n : expr_tree n = true -> forall st, walk_node cf w' n st = walk_node cf w (strip_pos n) st.
Proof.
  intros Hn st. unfold expr_tree in Hn. destruct n; cbn [deep is_expr andb] in Hn; try discriminate; cbn [strip_pos walk_node]; try reflexivity.
  - (* function *) destruct (fn_is name n_index || fn_is name n_isFirst || fn_is name n_isLast).
    + unfold loop_func. destruct args as [|a0 r]; [reflexivity|]. cbn [map]. destruct a0; reflexivity.
    + unfold call_func. destruct (func_arities name); [|reflexivity]. rewrite map_length.
      destruct (negb (mem (N.of_nat (length args)) l)); [reflexivity|]. apply mbind_ext; [apply eval_list_copy; exact Hn|reflexivity].
  - (* list literal *) apply mbind_ext; [apply eval_list_copy; exact Hn|reflexivity].
  - (* map literal *) apply mbind_ext; [apply maplit_copy; exact Hn|reflexivity].
  - (* data reference *) apply mbind_ext; [reflexivity|]. intros ref st'. apply dataref_copy. exact Hn.
  - (* not *) apply mbind_ext; [apply eval_copy; exact Hn|reflexivity].
  - (* negate *) apply mbind_ext; [apply evaldef_copy; exact Hn|reflexivity].
  - (* binary *) apply Bool.andb_true_iff in Hn. destruct Hn as [H1 H2].
    destruct op;
      try (apply mbind_ext; [apply evaldef_copy; exact H1|]; intros x st'; apply mbind_ext; [apply evaldef_copy; exact H2|reflexivity]);
      try (apply mbind_ext; [apply eval_copy; exact H1|]; intros x st'; apply mbind_ext; [apply eval_copy; exact H2|reflexivity]).
    + apply mbind_ext; [apply eval_copy; exact H1|]. intros x st'. destruct (truthy x); [reflexivity|].
      apply mbind_ext; [apply eval_copy; exact H2|reflexivity].
    + apply mbind_ext; [apply eval_copy; exact H1|]. intros x st'. destruct (truthy x); [|reflexivity].
      apply mbind_ext; [apply eval_copy; exact H2|reflexivity].
    + apply mbind_ext; [apply eval_copy; exact H1|]. intros x st'. destruct (is_nullish x); [apply eval_copy; exact H2|reflexivity].
  - (* ternary *) apply Bool.andb_true_iff in Hn. destruct Hn as [H12 H3]. apply Bool.andb_true_iff in H12. destruct H12 as [H1 H2].
    apply mbind_ext; [apply eval_copy; exact H1|]. intros c st'. destruct (truthy c); apply eval_copy; assumption.
Qed.
End Copy.

Lemma PhiC_ext_r {A} (m1 m2 m2' : M A) : PhiC m1 m2 -> (forall st, m2 st = m2' st) -> PhiC m1 m2'.
Proof. intros H E a b He. rewrite <- E. apply H. exact He. Qed.

(* (2) on an expression tree, erasing the node positions changes nothing but [cur] *)
Theorem walk_strip : forall fuel n, expr_tree n = true -> PhiC (walk cf fuel n) (walk cf fuel (strip_pos n)).
Proof.
  induction fuel as [|f IH]; intros n Hn.
  - intros a b H. split; [reflexivity|exact H].
  - rewrite !walk_S. unfold walk_body. apply PhiC_bind.
    + intros a b H. split; [reflexivity|]. cbn. apply eqc_set_cur. exact H.
    + intros _.
      set (w2 := fun c : node => if expr_tree c then walk cf f (strip_pos c) else walk cf f c).
      assert (Hw : forall c, PhiC (walk cf f c) (w2 c)).
      { intros c. unfold w2. destruct (expr_tree c) eqn:Ec; [apply IH; exact Ec|apply walk_eqc]. }
      apply (PhiC_ext_r _ (walk_node cf w2 n)).
      * apply (rphi_walk_node_all cf _ _ _ PhiC_logic trivial_sites); intros; apply Hw.
      * intros st. apply (walk_node_copy (walk cf f) w2); [|exact Hn].
        intros c Hc st'. unfold w2. rewrite Hc. reflexivity.
Qed.

(* as an equation on outcomes: same result; the final states agree on every field but [cur] *)
Corollary walk_strip_run fuel n st : expr_tree n = true ->
  fst (walk cf fuel n st) = fst (walk cf fuel (strip_pos n) st) /\ eqc (snd (walk cf fuel n st)) (snd (walk cf fuel (strip_pos n) st)).
Proof. intros Hn. apply (walk_strip fuel n Hn st st (eqc_refl st)). Qed.

End Walk.

(* erasing positions keeps the node kinds: a tree is an expression tree iff its position-free copy is *)
Lemma expr_tree_strip : forall n, expr_tree (strip_pos n) = expr_tree n.
Proof.
  induction n as [n IH] using size_induction. unfold expr_tree in *.
  assert (Hl : forall l, (forall c, In c l -> (size c < size n)%nat) -> forallb (deep is_expr) (map strip_pos l) = forallb (deep is_expr) l).
  { induction l as [|c r IHl]; intros H; [reflexivity|]. cbn [map forallb]. rewrite IH by (apply H; left; reflexivity).
    rewrite IHl by (intros d Hd; apply H; right; exact Hd). reflexivity. }
  assert (Hkv : forall l : list (bstr * node), (forall kv, In kv l -> (size (snd kv) < size n)%nat) ->
            forallb (fun kv => deep is_expr (snd kv)) (map (fun kv => (fst kv, strip_pos (snd kv))) l) = forallb (fun kv => deep is_expr (snd kv)) l).
  { induction l as [|kv r IHl]; intros H; [reflexivity|]. cbn [map forallb fst snd]. rewrite IH by (apply H; left; reflexivity).
    rewrite IHl by (intros d Hd; apply H; right; exact Hd). reflexivity. }
  destruct n; try reflexivity; cbn [strip_pos deep is_expr andb].
  - apply Hl. intros c Hc. cbn [size]. pose proof (size_in_list c args Hc). lia.
  - apply Hl. intros c Hc. cbn [size]. pose proof (size_in_list c items Hc). lia.
  - apply Hkv. intros kv Hin. cbn [size]. pose proof (list_sum_In (fun kv => size (snd kv)) kv _ Hin). lia.
  - apply Hl. intros c Hc. cbn [size]. pose proof (size_in_list c access Hc). lia.
  - apply IH. cbn [size]. lia.
  - apply IH. cbn [size]. lia.
  - apply IH. cbn [size]. lia.
  - rewrite !IH by (cbn [size]; lia). reflexivity.
  - rewrite !IH by (cbn [size]; lia). reflexivity.
Qed.
