(* C15: facts about the Spec's [normalize] used to relate what scanner and parser do with a piece of
   template text to the Spec: a piece the scanner drops (empty, or white space with a line break) has an
   empty image; at an end flagged by a comment one more white-space byte changes nothing. *)
From Soy Require Import Model.Bytes Model.Utf8 Model.Lexer Spec.Text Generated.Tables Proofs.RawTextProofs.
From Coq Require Import ZifyBool Lia.
Open Scope N_scope.

Lemma ws_Z c : gen_isSpaceEOL (Z.of_N c) = ws c.
Proof. unfold gen_isSpaceEOL, gen_isSpace, gen_isEndOfLine, ws. lia. Qed.
Lemma lb_Z c : gen_isEndOfLine (Z.of_N c) = line_break c.
Proof. unfold gen_isEndOfLine, line_break. lia. Qed.

(* allSpaceWithNewline, byte-wise *)
Lemma all_space_bytes : forall n v, (length v <= n)%nat -> forall seen,
  all_space_nl_aux (runes_aux 0 v) seen = true -> Forall (fun x => ws x = true) v /\ (seen = true \/ existsb line_break v = true).
Proof.
  induction n as [|n IH]; intros v Hn seen H.
  - destruct v; [|cbn in Hn; lia]. cbn in H. split; [constructor|left; exact H].
  - destruct v as [|c r]; [cbn in H; split; [constructor|left; exact H]|].
    cbn [runes_aux] in H. destruct (decode_rune (c :: r)) as [ru w] eqn:E.
    cbn [all_space_nl_aux] in H.
    destruct (decode_class c r ru w E) as [(Hc & -> & ->)|(Hc & Hru & _)].
    + rewrite ws_Z, lb_Z in H. destruct (ws c) eqn:Ew; cbn [negb] in H; [|discriminate].
      cbn [pred] in H. destruct (IH r ltac:(cbn in Hn; lia) _ H) as (A & B). split; [constructor; assumption|].
      cbn [existsb]. destruct seen; [left; reflexivity|]. cbn [orb] in B. right. destruct B as [B|B]; rewrite B; [reflexivity|apply Bool.orb_true_r].
    + assert (Ef : gen_isSpaceEOL (Z.of_N ru) = false) by (unfold gen_isSpaceEOL, gen_isSpace, gen_isEndOfLine; lia).
      rewrite Ef in H. cbn [negb] in H. discriminate.
Qed.

Lemma droppable_all_ws v : all_space_with_newline v = true -> v <> [] /\ Forall (fun x => ws x = true) v /\ existsb line_break v = true.
Proof.
  intros H. unfold all_space_with_newline, runes in H. destruct (all_space_bytes (length v) v (le_n _) false H) as (A & [B|B]); [discriminate|].
  split; [|auto]. intros ->. discriminate.
Qed.

Lemma normalize_all_ws_nl tb ta v : v <> [] -> Forall (fun x => ws x = true) v -> existsb line_break v = true -> normalize tb ta v = [].
Proof.
  intros Hne Hw Hb. unfold normalize, normalize_with.
  pose proof (NF_ws_run angle tb ta None v [] Hne Hw I) as H. unfold NF in H. rewrite app_nil_r in H. rewrite H.
  unfold ws_run_image. rewrite Hb. reflexivity.
Qed.

(* every string is empty, starts with a byte that is not white space, or starts with a maximal white-space run *)
Lemma ws_prefix_split : forall x : bstr, x = [] \/ (exists c r, x = c :: r /\ ws c = false) \/
  (exists w1 r, x = w1 ++ r /\ w1 <> [] /\ Forall (fun y => ws y = true) w1 /\ match r with [] => True | d :: _ => ws d = false end).
Proof.
  induction x as [|c x IH]; [left; reflexivity|]. right. destruct (ws c) eqn:Ec; [|left; eauto]. right.
  destruct IH as [->|[(d & r & -> & Hd)|(w1 & r & -> & Hne & Hw & Hr)]].
  - exists [c], []. repeat split; [discriminate|constructor; [exact Ec|constructor]].
  - exists [c], (d :: r). repeat split; [discriminate|constructor; [exact Ec|constructor]|exact Hd].
  - exists (c :: w1), r. repeat split; [discriminate|constructor; assumption|exact Hr].
Qed.

(* at an end whose neighbour is a comment, a trailing white-space byte more or less makes no difference *)
Lemma NF_snoc_ws tb b : ws b = true -> forall n x, (length x <= n)%nat -> forall prev,
  NF angle tb true prev (x ++ [b]) = NF angle tb true prev x.
Proof.
  intros Hb. induction n as [|n IH]; intros x Hn prev.
  - destruct x; [|cbn in Hn; lia]. cbn [app].
    pose proof (NF_ws_run angle tb true prev [b] [] ltac:(discriminate) ltac:(constructor; [exact Hb|constructor]) I) as H.
    cbn [app] in H. rewrite H, NF_nil. unfold ws_run_image. destruct (existsb line_break [b]); [destruct prev; reflexivity|].
    cbn [is_none andb]. rewrite Bool.orb_true_r. reflexivity.
  - destruct (ws_prefix_split x) as [->|[(c & r & -> & Hc)|(w1 & r & -> & Hne & Hw & Hr)]].
    + apply (IH [] ltac:(cbn; lia)).
    + cbn [app]. rewrite !NF_nonws by exact Hc. f_equal. apply IH. cbn [length] in Hn. lia.
    + destruct r as [|d r].
      * rewrite app_nil_r.
        pose proof (NF_ws_run angle tb true prev (w1 ++ [b]) [] ltac:(destruct w1; discriminate)
                      ltac:(apply Forall_app; split; [exact Hw|constructor; [exact Hb|constructor]]) I) as H1.
        pose proof (NF_ws_run angle tb true prev w1 [] Hne Hw I) as H2. rewrite app_nil_r in H1, H2. rewrite H1, H2, NF_nil.
        unfold ws_run_image. destruct (existsb line_break (w1 ++ [b])), (existsb line_break w1); cbn [is_none andb];
          rewrite ?Bool.orb_true_r; destruct prev; reflexivity.
      * rewrite <- app_assoc.
        pose proof (NF_ws_run angle tb true prev w1 ((d :: r) ++ [b]) Hne Hw Hr) as H1.
        pose proof (NF_ws_run angle tb true prev w1 (d :: r) Hne Hw Hr) as H2.
        cbn [app] in H1. cbn [app]. rewrite H1, H2. f_equal. change (d :: r ++ [b]) with ((d :: r) ++ [b]). apply IH.
        rewrite app_length in Hn. destruct w1; [congruence|cbn [length] in *; lia].
Qed.

Lemma normalize_snoc_ws tb b x : ws b = true -> normalize tb true (x ++ [b]) = normalize tb true x.
Proof. intros Hb. apply (NF_snoc_ws tb b Hb (length x) x (le_n _) None). Qed.

Lemma norm_pieces_cons tb x y rest : norm_pieces tb (x :: y :: rest) = normalize tb true x ++ norm_pieces true (y :: rest).
Proof. reflexivity. Qed.
Lemma norm_pieces_one tb x : norm_pieces tb [x] = normalize tb false x.
Proof. reflexivity. Qed.

Lemma pieces_bytes (P : N -> Prop) : forall T m pw cur pcs, Forall P cur -> Forall P T ->
  pieces m pw cur T = Some pcs -> Forall (Forall P) pcs.
Proof.
  induction T as [|c r IH]; intros m pw cur pcs Hcur HT Hp.
  - destruct m; cbn [pieces] in Hp; try discriminate; injection Hp as <-; (constructor; [apply Forall_rev; exact Hcur|constructor]).
  - inversion HT as [|? ? Hc Hr]; subst.
    assert (Hcont : forall pw' pcs', pieces MText pw' (c :: cur) r = Some pcs' -> Forall (Forall P) pcs').
    { intros pw' pcs' H. apply (IH MText pw' (c :: cur) pcs'); [constructor; assumption|exact Hr|exact H]. }
    assert (Hcons : forall m' pcs', cons_opt (rev cur) (pieces m' false [] r) = Some pcs' -> Forall (Forall P) pcs').
    { intros m' pcs' H. destruct (cons_opt_inv _ _ _ H) as (r0 & E & ->). constructor; [apply Forall_rev; exact Hcur|].
      apply (IH m' false [] r0); [constructor|exact Hr|exact E]. }
    destruct m; cbn [pieces] in Hp.
    + destruct (c =? 47); [|eapply Hcont; exact Hp].
      destruct r as [|d r2]; [eapply Hcont; exact Hp|].
      destruct (d =? 42).
      * destruct r2 as [|e r3]; [discriminate|].
        destruct ((e =? 42) && negb (match r3 with f :: _ => f =? 47 | [] => false end)); [discriminate|].
        eapply Hcons; exact Hp.
      * destruct ((d =? 47) && pw); [eapply Hcons; exact Hp|eapply Hcont; exact Hp].
    + apply (IH MLine false [] pcs); [constructor|exact Hr|exact Hp].
    + apply (IH (MBlock false) false [] pcs); [constructor|exact Hr|exact Hp].
    + destruct (line_break c); [apply (IH MText true [] pcs)|apply (IH MLine false [] pcs)]; try (constructor); assumption.
    + destruct (c =? 42); [apply (IH (MBlock true) false [] pcs); [constructor|exact Hr|exact Hp]|].
      destruct ((c =? 47) && star); [apply (IH MText false [] pcs)|apply (IH (MBlock false) false [] pcs)]; try constructor; assumption.
Qed.
