(* C07: the model of parsepasses.CheckDataRefs (Model/Checker.v) accepts exactly
   what the Spec (Spec/Wf.v) calls well-formed.

   Plan.  The checker threads a stack of bindings with used-flags and a list of
   used keys.  [mark_by f vs] is the stack [vs] after every name x with [f x]
   has been referenced once: the innermost binding of x gets its flag (the
   predicate handed to the rest of the stack forgets x -- that is shadowing).
   [chk_ok]: on a tree t, started with stack vs and G/L the names / loop
   names of vs, the checker succeeds exactly when [wf t G L], and then leaves
   [mark_by (fun x => refs x t) vs] (plus the binding of t itself when t is a
   {let}), and has added to the used keys exactly the params that t references
   freely (and that vs does not bind) or forwards by data="all". *)
From Coq Require Import Lia.
From Soy Require Import Model.Bytes Model.Values Model.Outcome Model.Ast Model.RefView Model.Checker Spec.Wf
  Generated.Tables Proofs.ValueProofs.
Open Scope N_scope.

(* the loop functions of the model are soyhtml's loopFuncs (regenerated table) *)
Lemma loop_func_names_table : loop_func_names = html_loop_funcs.
Proof. reflexivity. Qed.

Lemma rt_induction (P : rt -> Prop) :
  (forall k kids, Forall P kids -> P (RT k kids)) -> forall t, P t.
Proof.
  intros H. fix IH 1. intros [k kids]. apply H.
  induction kids as [|c r IHr]; constructor; [apply IH | exact IHr].
Qed.

Lemma tt_iff : true = true <-> True. Proof. tauto. Qed.
Lemma ft_iff : false = true <-> False. Proof. split; [discriminate | tauto]. Qed.

Lemma contains_In l x : contains l x = true <-> In x l.
Proof.
  induction l as [|y r IH]; cbn [contains In]; [split; [discriminate | tauto]|].
  rewrite orb_true_iff, IH. destruct (bstr_eqb_spec y x); split; intros [H|H]; auto; congruence.
Qed.

Lemma contains_false l x : contains l x = false <-> ~ In x l.
Proof. rewrite <- contains_In. destruct (contains l x); split; congruence. Qed.

Lemma contains_app l1 l2 x : contains (l1 ++ l2) x = contains l1 x || contains l2 x.
Proof. induction l1 as [|y r IH]; cbn [contains app]; [reflexivity|]. rewrite IH, orb_assoc. reflexivity. Qed.

Lemma contains_filter f l x : contains (filter f l) x = contains l x && f x.
Proof.
  induction l as [|y r IH]; cbn [contains filter]; [reflexivity|].
  destruct (f y) eqn:Hf; cbn [contains]; rewrite IH.
  - destruct (bstr_eqb_spec y x) as [->|]; cbn [orb]; [rewrite Hf | reflexivity].
    destruct (contains r x); reflexivity.
  - destruct (bstr_eqb_spec y x) as [->|]; cbn [orb]; [rewrite Hf | reflexivity].
    rewrite andb_false_r. reflexivity.
Qed.

Lemma forallb_ext_in {A} (f g : A -> bool) l :
  (forall x, In x l -> f x = g x) -> forallb f l = forallb g l.
Proof.
  induction l as [|y r IH]; intros H; cbn [forallb]; [reflexivity|].
  rewrite (H y (or_introl eq_refl)), IH; [reflexivity|]. intros x Hx. apply H. right. exact Hx.
Qed.

Lemma existsb_ext {A} (f g : A -> bool) l : (forall x, f x = g x) -> existsb f l = existsb g l.
Proof. intros H. induction l as [|y r IH]; cbn [existsb]; [reflexivity|]. rewrite H, IH. reflexivity. Qed.

Definition set_used (v : binding) : binding := {| b_name := b_name v; b_let := b_let v; b_used := true |}.

Fixpoint mark_by (f : bstr -> bool) (vs : list binding) : list binding :=
  match vs with
  | [] => []
  | v :: r => (if f (b_name v) then set_used v else v)
              :: mark_by (fun y => f y && negb (bstr_eqb (b_name v) y)) r
  end.

Definition names (vs : list binding) : list bstr := map b_name vs.
Definition loop_names (vs : list binding) : list bstr := map b_name (filter (fun v => negb (b_let v)) vs).

Lemma mark_by_ext f g vs : (forall y, f y = g y) -> mark_by f vs = mark_by g vs.
Proof.
  revert f g. induction vs as [|v r IH]; intros f g H; cbn [mark_by]; [reflexivity|].
  rewrite H. f_equal. apply IH. intros y. rewrite H. reflexivity.
Qed.

Lemma mark_by_ext_in f g vs : (forall y, In y (map b_name vs) -> f y = g y) -> mark_by f vs = mark_by g vs.
Proof.
  revert f g. induction vs as [|v r IH]; intros f g H; cbn [mark_by]; [reflexivity|].
  rewrite (H (b_name v)) by (left; reflexivity). f_equal. apply IH. intros y Hy.
  rewrite (H y) by (right; exact Hy). reflexivity.
Qed.

Lemma mark_by_false vs : mark_by (fun _ => false) vs = vs.
Proof.
  induction vs as [|v r IH]; cbn [mark_by]; [reflexivity|]. f_equal.
  rewrite <- IH at 2. apply mark_by_ext. reflexivity.
Qed.

Lemma mark_by_names f vs : names (mark_by f vs) = names vs.
Proof.
  revert f. induction vs as [|v r IH]; intros f; cbn [mark_by names map]; [reflexivity|].
  f_equal; [destruct (f (b_name v)); reflexivity | apply IH].
Qed.

Lemma mark_by_loop_names f vs : loop_names (mark_by f vs) = loop_names vs.
Proof.
  revert f. induction vs as [|v r IH]; intros f; cbn [mark_by loop_names filter map]; [reflexivity|].
  fold (loop_names r). specialize (IH (fun y => f y && negb (bstr_eqb (b_name v) y))). unfold loop_names in IH.
  destruct (f (b_name v)); cbn [set_used b_let]; destruct (b_let v); cbn [negb map]; rewrite ?IH; reflexivity.
Qed.

Lemma mark_by_length f vs : length (mark_by f vs) = length vs.
Proof. rewrite <- (map_length b_name), <- (map_length b_name vs). apply (f_equal (@length _)). apply mark_by_names. Qed.

Lemma mark_by_comp f g vs : mark_by f (mark_by g vs) = mark_by (fun y => g y || f y) vs.
Proof.
  revert f g. induction vs as [|v r IH]; intros f g; cbn [mark_by]; [reflexivity|].
  f_equal.
  - destruct (g (b_name v)) eqn:Hg; cbn [set_used b_name orb].
    + destruct (f (b_name v)); reflexivity.
    + reflexivity.
  - assert (Hn : b_name (if g (b_name v) then set_used v else v) = b_name v) by (destruct (g (b_name v)); reflexivity).
    rewrite Hn, IH. apply mark_by_ext. intros y.
    destruct (g y), (f y), (bstr_eqb (b_name v) y); reflexivity.
Qed.

(* one reference: visitKey's loop *)
Lemma mark_spec key vs :
  mark key vs = if contains (names vs) key then Some (mark_by (fun y => bstr_eqb y key) vs) else None.
Proof.
  induction vs as [|v r IH]; cbn [mark names map contains mark_by]; [reflexivity|].
  destruct (bstr_eqb_spec (b_name v) key) as [He|Hne]; cbn [orb].
  - f_equal. unfold set_used. f_equal.
    rewrite <- (mark_by_false r) at 1. apply mark_by_ext. intros y.
    destruct (bstr_eqb_spec y key) as [->|]; [|reflexivity]. rewrite He, bstr_eqb_refl. reflexivity.
  - fold (names r). rewrite IH. destruct (contains (names r) key); [|reflexivity].
    f_equal. f_equal. apply mark_by_ext. intros y.
    destruct (bstr_eqb_spec y key) as [->|]; [|reflexivity].
    destruct (bstr_eqb_spec (b_name v) key); [contradiction | reflexivity].
Qed.

Lemma loop_names_spec key vs :
  existsb (fun v => negb (b_let v) && bstr_eqb (b_name v) key) vs = contains (loop_names vs) key.
Proof.
  induction vs as [|v r IH]; cbn [existsb loop_names filter map contains]; [reflexivity|].
  fold (loop_names r). destruct (b_let v); cbn [negb andb orb map contains]; rewrite IH; reflexivity.
Qed.

Section Template.
Variable templates : list template.
Variable params : list bstr.

Notation wf := (wf templates params).
Notation forwards := (forwards templates).
Notation chk := (chk templates params).
Notation chk_body := (chk_body templates params).

Definition rseq (x : bstr) (ks : list rt) : bool := refs_seq x ks (map (refs x) ks).
Definition fseq (p : bstr) (ks : list rt) : bool := existsb (forwards p) ks.

Lemma rseq_cons x c r : rseq x (c :: r) = refs x c || (negb (binds_let x c) && rseq x r).
Proof. reflexivity. Qed.

Definition push_of (t : rt) : list binding :=
  match rt_kind t with KLet x => [{| b_name := x; b_let := true; b_used := false |}] | _ => [] end.

Definition env_after (c : rt) (G : list bstr) : list bstr := match rt_kind c with KLet x => x :: G | _ => G end.

(* wf_seq = scoping + every let used *)
Fixpoint scope_seq (ks : list rt) (ws : list wfun) (G L : list bstr) : bool :=
  match ks, ws with
  | c :: ks', w :: ws' => w G L && scope_seq ks' ws' (env_after c G) L
  | _, _ => true
  end.
Fixpoint lets_used (ks : list rt) : bool :=
  match ks with
  | [] => true
  | c :: r => match rt_kind c with KLet x => rseq x r | _ => true end && lets_used r
  end.
Definition let_of (c : rt) (used : bstr -> bool) : list binding :=
  match rt_kind c with KLet x => [{| b_name := x; b_let := true; b_used := used x |}] | _ => [] end.
(* the bindings the lets of a sibling list leave on the stack (innermost first), with their final flags *)
Fixpoint seq_lets (ks : list rt) : list binding :=
  match ks with
  | [] => []
  | c :: r => seq_lets r ++ let_of c (fun x => rseq x r)
  end.

Lemma wf_seq_split ks G L : wf_seq ks (map wf ks) G L = scope_seq ks (map wf ks) G L && lets_used ks.
Proof.
  revert G. induction ks as [|c r IH]; intros G; cbn [wf_seq scope_seq lets_used map]; [reflexivity|].
  unfold env_after. destruct (rt_kind c) as [|x| | | | | |]; rewrite IH, <- ?andb_assoc; try reflexivity.
  f_equal. fold (rseq x r). rewrite !andb_assoc. f_equal. apply andb_comm.
Qed.

Lemma seq_lets_unused ks :
  existsb (fun v => b_let v && negb (b_used v)) (seq_lets ks) = negb (lets_used ks).
Proof.
  induction ks as [|c r IH]; cbn [seq_lets lets_used existsb]; [reflexivity|].
  rewrite existsb_app, IH, negb_andb, orb_comm. unfold let_of.
  destruct (rt_kind c); cbn [existsb andb orb b_let b_used negb]; rewrite ?orb_false_r; reflexivity.
Qed.

(* the used keys gained by a run: exactly the params referenced freely (and not bound by the stack) or forwarded *)
Definition adds (G : list bstr) (rf fw : bstr -> bool) (u u' : list bstr) : Prop :=
  forall k, In k u' <-> In k u \/ (In k params /\ (negb (contains G k) && rf k || fw k) = true).

Lemma adds_refl G u : adds G (fun _ => false) (fun _ => false) u u.
Proof. intros k. rewrite andb_false_r. cbn. intuition congruence. Qed.

Lemma adds_ext G rf fw rf' fw' u u' :
  (forall k, rf k = rf' k) -> (forall k, fw k = fw' k) -> adds G rf fw u u' -> adds G rf' fw' u u'.
Proof. intros Hr Hf H k. rewrite (H k), Hr, Hf. reflexivity. Qed.

Lemma adds_trans G rf1 fw1 rf2 fw2 u u1 u2 :
  adds G rf1 fw1 u u1 -> adds G rf2 fw2 u1 u2 -> adds G (fun k => rf1 k || rf2 k) (fun k => fw1 k || fw2 k) u u2.
Proof.
  intros H1 H2 k. rewrite (H2 k), (H1 k).
  replace (negb (contains G k) && (rf1 k || rf2 k) || (fw1 k || fw2 k))
    with ((negb (contains G k) && rf1 k || fw1 k) || (negb (contains G k) && rf2 k || fw2 k))
    by (destruct (contains G k), (rf1 k), (fw1 k), (rf2 k); reflexivity).
  destruct (negb (contains G k) && rf1 k || fw1 k), (negb (contains G k) && rf2 k || fw2 k); cbn [orb]; intuition congruence.
Qed.

(* a reference under a binder of x is not a reference to the param x *)
Lemma adds_shadow x G rf fw u u' : adds (x :: G) rf fw u u' -> adds G (fun k => negb (bstr_eqb x k) && rf k) fw u u'.
Proof.
  intros H k. rewrite (H k). cbn [contains].
  replace (negb (bstr_eqb x k || contains G k) && rf k) with (negb (contains G k) && (negb (bstr_eqb x k) && rf k))
    by (destruct (bstr_eqb x k), (contains G k); reflexivity).
  reflexivity.
Qed.

Lemma adds_after c G rf fw u u' : adds (env_after c G) rf fw u u' -> adds G (fun k => negb (binds_let k c) && rf k) fw u u'.
Proof. unfold env_after, binds_let. destruct (rt_kind c); try exact (fun H => H). apply adds_shadow. Qed.

Definition chk_ok (t : rt) : Prop :=
  loops_ok t = true -> forall st,
  if wf t (names (vars st)) (loop_names (vars st))
  then exists st', chk t st = CO st'
       /\ vars st' = push_of t ++ mark_by (fun x => refs x t) (vars st)
       /\ adds (names (vars st)) (fun k => refs k t) (fun k => forwards k t) (used_keys st) (used_keys st')
  else exists r, chk t st = CR r.

Lemma names_app a c : names (a ++ c) = names a ++ names c.
Proof. apply map_app. Qed.
Lemma loop_names_app a c : loop_names (a ++ c) = loop_names a ++ loop_names c.
Proof. unfold loop_names. rewrite filter_app, map_app. reflexivity. Qed.

Lemma names_push t vs : names (push_of t ++ vs) = env_after t (names vs).
Proof. unfold push_of, env_after. destruct (rt_kind t); reflexivity. Qed.
Lemma loop_names_push t vs : loop_names (push_of t ++ vs) = loop_names vs.
Proof. unfold push_of. destruct (rt_kind t); reflexivity. Qed.

Lemma mark_by_push f c vs :
  mark_by f (push_of c ++ vs) = let_of c f ++ mark_by (fun y => f y && negb (binds_let y c)) vs.
Proof.
  unfold push_of, let_of, binds_let. destruct (rt_kind c); cbn [app mark_by b_name];
    try (apply mark_by_ext; intros y; symmetry; apply andb_true_r).
  f_equal. destruct (f name); reflexivity.
Qed.

(* the loop over the children, before the pop *)
Lemma run_each_spec ks : Forall chk_ok ks -> forallb loops_ok ks = true -> forall st,
  if scope_seq ks (map wf ks) (names (vars st)) (loop_names (vars st))
  then exists st', run_each (map chk ks) st = CO st'
       /\ vars st' = seq_lets ks ++ mark_by (fun x => rseq x ks) (vars st)
       /\ adds (names (vars st)) (fun k => rseq k ks) (fun k => fseq k ks) (used_keys st) (used_keys st')
  else exists r, run_each (map chk ks) st = CR r.
Proof.
  induction ks as [|c r IH]; intros Hall Hlo st; cbn [scope_seq map run_each].
  - exists st. split; [reflexivity|]. split; [cbn; symmetry; apply mark_by_false | apply adds_refl].
  - inversion Hall as [|? ? Hc Hr]; subst. cbn [forallb] in Hlo. apply andb_true_iff in Hlo as [Hlc Hlr].
    specialize (Hc Hlc st).
    destruct (Wf.wf templates params c (names (vars st)) (loop_names (vars st))); cbn [andb].
    2:{ destruct Hc as [e He]. exists e. rewrite He. reflexivity. }
    destruct Hc as (st1 & He1 & Hv1 & Ha1). rewrite He1. cbn [cbind].
    specialize (IH Hr Hlr st1).
    rewrite Hv1, names_push, loop_names_push, mark_by_names, mark_by_loop_names in IH.
    destruct (scope_seq r (map wf r) _ _); [|exact IH].
    destruct IH as (st2 & He2 & Hv2 & Ha2). exists st2. split; [exact He2|]. split.
    + rewrite Hv2, mark_by_push, mark_by_comp. cbn [seq_lets]. rewrite <- app_assoc. do 2 f_equal.
      apply mark_by_ext. intros y. rewrite rseq_cons, andb_comm. reflexivity.
    + exact (adds_trans _ _ _ _ _ _ _ _ Ha1 (adds_after c _ _ _ _ _ Ha2)).
Qed.

(* recurse: the loop, then the pop with the unused-let check *)
Lemma recurse_spec ks : Forall chk_ok ks -> forallb loops_ok ks = true -> forall st,
  if wf_seq ks (map wf ks) (names (vars st)) (loop_names (vars st))
  then exists st', chk_recurse (map chk ks) st = CO st'
       /\ vars st' = mark_by (fun x => rseq x ks) (vars st)
       /\ adds (names (vars st)) (fun k => rseq k ks) (fun k => fseq k ks) (used_keys st) (used_keys st')
  else exists r, chk_recurse (map chk ks) st = CR r.
Proof.
  intros Hall Hlo st. pose proof (run_each_spec ks Hall Hlo st) as H.
  rewrite wf_seq_split. unfold chk_recurse.
  destruct (scope_seq ks (map wf ks) (names (vars st)) (loop_names (vars st))); cbn [andb].
  2:{ destruct H as [e He]. exists e. rewrite He. reflexivity. }
  destruct H as (st1 & He & Hv & Ha). rewrite He. cbn [cbind].
  assert (Hn : (length (vars st1) - length (vars st))%nat = length (seq_lets ks))
    by (rewrite Hv, app_length, mark_by_length; lia).
  rewrite Hn, Hv, firstn_app, Nat.sub_diag, firstn_all, firstn_O, app_nil_r.
  rewrite skipn_app, Nat.sub_diag, skipn_all, skipn_O. cbn [app].
  rewrite seq_lets_unused. destruct (lets_used ks); cbn [negb].
  - eexists. split; [reflexivity|]. split; [reflexivity | exact Ha].
  - eexists. reflexivity.
Qed.

(* checkCall *)
Lemma all_keys_spec pkeys :
  all_keys pkeys = if forallb (fun o => match o with Some _ => true | None => false end) pkeys
                   then Some (keys_of pkeys) else None.
Proof.
  induction pkeys as [|[k|] r IH]; cbn [all_keys forallb keys_of flat_map]; [reflexivity| |reflexivity].
  rewrite IH. cbn [andb]. destruct (forallb _ r); reflexivity.
Qed.

Lemma required_declared (ps : list (bstr * bool)) r :
  In r (map fst (filter (fun p => negb (snd p)) ps)) -> contains (map fst ps) r = true.
Proof.
  intros H. apply contains_In. apply in_map_iff in H as (p & <- & Hp). apply filter_In in Hp as [Hp _].
  apply in_map. exact Hp.
Qed.

Lemma check_call_spec name alldata hasdata pkeys st :
  if call_ok templates params name alldata hasdata pkeys
  then exists st', check_call templates params name alldata hasdata pkeys st = CO st'
       /\ vars st' = vars st
       /\ adds (names (vars st)) (fun _ => false) (fun k => forwards k (RT (KCall name alldata hasdata pkeys) []))
               (used_keys st) (used_keys st')
  else exists r, check_call templates params name alldata hasdata pkeys st = CR r.
Proof.
  unfold call_ok, check_call, adds. cbn [Wf.forwards existsb]. destruct (find_template templates name) as [callee|]; [|eexists; reflexivity].
  rewrite all_keys_spec. destruct (forallb _ pkeys); cbn [andb]; [|eexists; reflexivity].
  set (declared := map fst (t_params callee)).
  set (passed := if alldata then filter (contains declared) params else []).
  assert (Hpassed : forallb (contains declared) passed = true).
  { apply forallb_forall. intros x Hx. subst passed. destruct alldata; [|destruct Hx].
    apply filter_In in Hx. tauto. }
  rewrite forallb_app, Hpassed. cbn [andb].
  destruct (forallb (contains declared) (keys_of pkeys)); cbn [andb negb]; [|eexists; reflexivity].
  assert (Hu : forall k, In k (used_keys st ++ passed) <->
               In k (used_keys st) \/ (In k params /\
                 negb (contains (names (vars st)) k) && false || ((if alldata then contains declared k else false) || false) = true)).
  { intros k. rewrite in_app_iff, andb_false_r, orb_false_r. subst passed. destruct alldata.
    - rewrite filter_In. tauto.
    - cbn. intuition congruence. }
  assert (Hreq : forallb (contains (passed ++ keys_of pkeys)) (map fst (filter (fun p => negb (snd p)) (t_params callee)))
                 = forallb (fun r => contains (keys_of pkeys) r || alldata && contains params r)
                           (map fst (filter (fun p => negb (snd p)) (t_params callee)))).
  { apply forallb_ext_in. intros r Hr. rewrite contains_app. subst passed.
    destruct alldata; cbn [andb contains]; [|rewrite orb_false_r; reflexivity].
    rewrite contains_filter. subst declared. rewrite (required_declared _ _ Hr), andb_true_r. apply orb_comm. }
  destruct hasdata; cbn [orb].
  - eexists. split; [reflexivity|]. split; [reflexivity|]. cbn [used_keys]. destruct alldata; exact Hu.
  - rewrite Hreq. match goal with |- if ?c then _ else _ => destruct c end; cbn [negb].
    + eexists. split; [reflexivity|]. split; [reflexivity|]. cbn [used_keys]. destruct alldata; exact Hu.
    + eexists. reflexivity.
Qed.

Lemma check_loop_func_spec name arg0 st :
  check_loop_func name arg0 st = if loopfunc_ok name arg0 (loop_names (vars st)) then CO st else CR RLoopFunc.
Proof.
  unfold check_loop_func, loopfunc_ok. destruct (contains loop_func_names name); cbn [negb orb]; [|reflexivity].
  destruct arg0 as [key|]; [|reflexivity]. rewrite loop_names_spec. reflexivity.
Qed.

Definition no_lets (ks : list rt) : bool := negb (existsb (fun c => is_let_kind (rt_kind c)) ks).

Lemma no_lets_cons c r : no_lets (c :: r) = true -> is_let_kind (rt_kind c) = false /\ no_lets r = true.
Proof. unfold no_lets. cbn [existsb]. destruct (is_let_kind (rt_kind c)); cbn; [discriminate|]. auto. Qed.

Lemma no_lets_push c : is_let_kind (rt_kind c) = false -> push_of c = [].
Proof. unfold push_of. destruct (rt_kind c); cbn; congruence. Qed.

Lemma no_lets_seq ks : no_lets ks = true ->
  seq_lets ks = []
  /\ (forall x, rseq x ks = existsb (fun r => r) (map (refs x) ks))
  /\ (forall G L, scope_seq ks (map wf ks) G L = forallb (fun w => w G L) (map wf ks)).
Proof.
  induction ks as [|c r IH]; intros H.
  - repeat split; reflexivity.
  - apply no_lets_cons in H as [Hc Hr]. destruct (IH Hr) as (H1 & H3 & H4).
    cbn [seq_lets scope_seq map forallb existsb]. rewrite H1. unfold let_of, env_after.
    repeat split.
    + destruct (rt_kind c); cbn in Hc; try discriminate; reflexivity.
    + intros x. rewrite rseq_cons, H3. unfold binds_let. destruct (rt_kind c); cbn in Hc; try discriminate; reflexivity.
    + intros G L. rewrite <- H4. destruct (rt_kind c); cbn in Hc; try discriminate; reflexivity.
Qed.

Lemma chk_RT k kids : chk (RT k kids) = chk_body k (map chk kids).
Proof. reflexivity. Qed.
Lemma wf_RT k kids : wf (RT k kids) = wf_body templates params k kids (map wf kids).
Proof. reflexivity. Qed.
Lemma refs_RT x k kids : refs x (RT k kids) = refs_body x k kids (map (refs x) kids).
Proof. reflexivity. Qed.
Lemma loops_ok_RT k kids :
  loops_ok (RT k kids) = (match k with KFor _ => (2 <=? length kids)%nat && no_lets kids | _ => true end) && forallb loops_ok kids.
Proof. reflexivity. Qed.

(* a parent that is not a {let}: its own step [st -> st1] marks the references [rf0] and adds the keys of
   [rf0] / [fw0]; then the children are checked *)
Lemma after_step k kids st st1 (rf0 fw0 : bstr -> bool) :
  Forall chk_ok kids -> forallb loops_ok kids = true -> is_let_kind k = false ->
  (forall x, refs x (RT k kids) = rf0 x || rseq x kids) ->
  (forall p, forwards p (RT k kids) = fw0 p || fseq p kids) ->
  vars st1 = mark_by rf0 (vars st) ->
  adds (names (vars st)) rf0 fw0 (used_keys st) (used_keys st1) ->
  if wf_seq kids (map wf kids) (names (vars st)) (loop_names (vars st))
  then exists st', chk_recurse (map chk kids) st1 = CO st'
       /\ vars st' = push_of (RT k kids) ++ mark_by (fun x => refs x (RT k kids)) (vars st)
       /\ adds (names (vars st)) (fun x => refs x (RT k kids)) (fun p => forwards p (RT k kids)) (used_keys st) (used_keys st')
  else exists r, chk_recurse (map chk kids) st1 = CR r.
Proof.
  intros IH Hlk Hk Hr Hf Hv Hu. pose proof (recurse_spec kids IH Hlk st1) as H.
  rewrite Hv, mark_by_names, mark_by_loop_names in H.
  destruct (wf_seq kids (map wf kids) (names (vars st)) (loop_names (vars st))); [|exact H].
  destruct H as (st' & He & Hv' & Ha). exists st'. split; [exact He|]. split.
  - rewrite (no_lets_push (RT k kids) Hk), Hv', mark_by_comp. apply mark_by_ext. intros y. symmetry. apply Hr.
  - apply (adds_ext _ _ _ _ _ _ _ (fun x => eq_sym (Hr x)) (fun p => eq_sym (Hf p)) (adds_trans _ _ _ _ _ _ _ _ Hu Ha)).
Qed.

Theorem chk_ok_all : forall t, chk_ok t.
Proof.
  apply rt_induction. intros k kids IH Hlo st.
  rewrite loops_ok_RT in Hlo. apply andb_true_iff in Hlo as [Hk Hlk].
  rewrite wf_RT, chk_RT.
  set (G := names (vars st)). set (L := loop_names (vars st)).
  (* a parent that only recurses *)
  assert (Hplain : forall k0, is_let_kind k0 = false ->
            (forall x, refs x (RT k0 kids) = rseq x kids) -> (forall p, Wf.forwards templates p (RT k0 kids) = fseq p kids) ->
            if wf_seq kids (map wf kids) G L
            then exists st', chk_recurse (map chk kids) st = CO st'
                 /\ vars st' = push_of (RT k0 kids) ++ mark_by (fun x => refs x (RT k0 kids)) (vars st)
                 /\ adds G (fun x => refs x (RT k0 kids)) (fun p => Wf.forwards templates p (RT k0 kids)) (used_keys st) (used_keys st')
            else exists r, chk_recurse (map chk kids) st = CR r).
  { intros k0 Hk0 Hr Hf.
    apply (after_step k0 kids st st (fun _ => false) (fun _ => false) IH Hlk Hk0 Hr Hf (eq_sym (mark_by_false _)) (adds_refl _ _)). }
  destruct k; cbn [wf_body chk_body].
  - (* block *) apply Hplain; reflexivity.
  - (* let: as for a block, then the push *)
    destruct (bstr_eqb name s_ij); cbn [negb andb]; [eexists; reflexivity|].
    specialize (Hplain KBlock eq_refl (fun _ => eq_refl) (fun _ => eq_refl)).
    destruct (wf_seq kids (map wf kids) G L).
    + destruct Hplain as (st' & He & Hv & Ha). rewrite He. cbn [cbind]. eexists. split; [reflexivity|].
      split; [cbn; rewrite Hv; reflexivity | exact Ha].
    + destruct Hplain as [e He]. rewrite He. eexists. reflexivity.
  - (* call *)
    pose proof (check_call_spec name alldata hasdata pkeys st) as Hc.
    destruct (call_ok templates params name alldata hasdata pkeys); cbn [andb].
    2:{ destruct Hc as [e He]. rewrite He. eexists. reflexivity. }
    destruct Hc as (st1 & He1 & Hv1 & Hu1). rewrite He1. cbn [cbind].
    refine (after_step (KCall name alldata hasdata pkeys) kids st st1 (fun _ => false) _ IH Hlk eq_refl (fun _ => eq_refl) _ _ Hu1).
    + intros p. cbn [Wf.forwards existsb]. rewrite orb_false_r. reflexivity.
    + rewrite Hv1. symmetry. apply mark_by_false.
  - (* for *)
    destruct kids as [|l [|body ie]]; cbn in Hk; try discriminate.
    apply no_lets_cons in Hk as [Hnl Hk]. apply no_lets_cons in Hk as [Hnb Hnie].
    inversion IH as [|? ? Hl IH1]; subst. inversion IH1 as [|? ? Hb Hie]; subst.
    cbn [forallb] in Hlk. apply andb_true_iff in Hlk as [Hll Hlk]. apply andb_true_iff in Hlk as [Hlb Hlie].
    cbn [map].
    specialize (Hl Hll st). fold G L in Hl.
    destruct (Wf.wf templates params l G L); cbn [andb].
    2:{ destruct Hl as [e He]. rewrite He. eexists. reflexivity. }
    destruct Hl as (st1 & He1 & Hv1 & Ha1). rewrite He1. cbn [cbind]. rewrite (no_lets_push _ Hnl) in Hv1. cbn [app] in Hv1.
    set (bx := {| b_name := var; b_let := false; b_used := false |}).
    specialize (Hb Hlb (push_var st1 bx)).
    assert (HG1 : names (vars (push_var st1 bx)) = var :: G) by (cbn; rewrite Hv1; fold (names (mark_by (fun x => refs x l) (vars st))); rewrite mark_by_names; reflexivity).
    assert (HL1 : loop_names (vars (push_var st1 bx)) = var :: L).
    { cbn [push_var set_vars vars]. unfold loop_names at 1. cbn [filter bx b_let negb map]. fold (loop_names (vars st1)).
      rewrite Hv1, mark_by_loop_names. reflexivity. }
    rewrite HG1, HL1 in Hb.
    destruct (Wf.wf templates params body (var :: G) (var :: L)); cbn [andb].
    2:{ destruct Hb as [e He]. rewrite He. eexists. reflexivity. }
    destruct Hb as (st2 & He2 & Hv2 & Ha2). rewrite He2. cbn [cbind].
    rewrite (no_lets_push _ Hnb) in Hv2. cbn [app push_var set_vars vars mark_by] in Hv2.
    destruct (no_lets_seq ie Hnie) as (Hs1 & Hs3 & Hs4).
    pose proof (run_each_spec ie Hie Hlie (set_vars st2 (tl (vars st2)))) as H3.
    assert (Hv3 : vars (set_vars st2 (tl (vars st2))) = mark_by (fun y => refs y l || (refs y body && negb (bstr_eqb var y))) (vars st)).
    { cbn [set_vars vars]. rewrite Hv2. cbn [tl bx b_name]. rewrite Hv1, mark_by_comp. reflexivity. }
    rewrite Hv3, mark_by_names, mark_by_loop_names, Hs4 in H3. fold G L in H3.
    destruct (forallb (fun w => w G L) (map wf ie)); [|exact H3].
    destruct H3 as (st3 & He3 & Hv3' & Ha3). exists st3. split; [exact He3|]. split.
    + rewrite Hv3', Hs1. cbn [app push_of rt_kind]. rewrite mark_by_comp. apply mark_by_ext. intros y.
      rewrite refs_RT. cbn [refs_body map]. rewrite Hs3, (andb_comm (refs y body)). reflexivity.
    + cbn [set_vars used_keys] in Ha3. cbn [push_var set_vars used_keys] in Ha2.
      refine (adds_ext _ _ _ _ _ _ _ _ _ (adds_trans _ _ _ _ _ _ _ _ (adds_trans _ _ _ _ _ _ _ _ Ha1 (adds_shadow _ _ _ _ _ _ Ha2)) Ha3)); intros k0.
      * rewrite refs_RT. cbn [refs_body map]. rewrite Hs3. reflexivity.
      * cbn [Wf.forwards existsb orb]. rewrite orb_assoc. reflexivity.
  - (* data reference *)
    unfold visit_key.
    assert (Hr : forall rf0, (forall x, rf0 x = bstr_eqb key x && negb (bstr_eqb key s_ij)) ->
                 forall x, refs x (RT (KRef key) kids) = rf0 x || rseq x kids)
      by (intros rf0 H0 x; rewrite H0; reflexivity).
    destruct (bstr_eqb key s_ij) eqn:Hij; cbn [orb cbind].
    + apply Hplain; [reflexivity | apply (Hr (fun _ => false)); intros x; rewrite andb_false_r; reflexivity | reflexivity].
    + specialize (Hr (bstr_eqb key) (fun x => eq_sym (andb_true_r _))).
      rewrite mark_spec. fold G. destruct (contains G key) eqn:HGk; cbn [orb cbind].
      * (* bound by the stack: the innermost binding is marked *)
        refine (after_step (KRef key) kids st _ _ (fun _ => false) IH Hlk eq_refl Hr (fun _ => eq_refl) _ _); cbn [set_vars vars used_keys].
        -- apply mark_by_ext. intros y. apply bstr_eqb_sym.
        -- intros k0. rewrite orb_false_r. destruct (bstr_eqb_spec key k0) as [<-|]; [fold G; rewrite HGk | rewrite andb_false_r]; cbn; intuition congruence.
      * (* a param: it is used *)
        destruct (contains params key) eqn:HPk; cbn [andb cbind]; [|eexists; reflexivity].
        refine (after_step (KRef key) kids st _ _ (fun _ => false) IH Hlk eq_refl Hr (fun _ => eq_refl) _ _); cbn [add_used vars used_keys].
        -- rewrite <- (mark_by_false (vars st)) at 1. apply mark_by_ext_in. intros y Hy.
           destruct (bstr_eqb_spec key y) as [<-|]; [|reflexivity]. apply contains_false in HGk. contradiction.
        -- intros k0. rewrite in_app_iff, orb_false_r. cbn [In].
           destruct (bstr_eqb_spec key k0) as [<-|Hne].
           ++ fold G. rewrite HGk. cbn. apply contains_In in HPk. intuition.
           ++ rewrite andb_false_r. intuition congruence.
  - (* function *)
    rewrite check_loop_func_spec. fold L.
    destruct (loopfunc_ok name arg0 L); cbn [andb cbind]; [|eexists; reflexivity].
    apply Hplain; reflexivity.
  - (* header param *) eexists. reflexivity.
  - (* other *) apply Hplain; reflexivity.
Qed.

Lemma bool_eq_iff (a c : bool) : (a = true <-> c = true) -> a = c.
Proof. destruct a, c; intros [H1 H2]; try reflexivity; [symmetry; apply H1 | apply H2]; reflexivity. Qed.

Theorem check_template_node_iff n : loops_ok (view n) = true ->
  (check_template_node templates params n = Accept <-> wf_template_node templates params n = true).
Proof.
  intros Hlo. unfold check_template_node, wf_template_node.
  pose proof (chk_ok_all (view n) Hlo {| vars := []; used_keys := [] |}) as H. cbn [vars names loop_names map filter] in H.
  destruct (Wf.wf templates params (view n) [] []); cbn [andb].
  - destruct H as (st' & He & _ & Ha). rewrite He.
    assert (Hf : forallb (contains (used_keys st')) params
                 = forallb (fun p => refs p (view n) || Wf.forwards templates p (view n)) params).
    { apply forallb_ext_in. intros p Hp. apply bool_eq_iff. rewrite contains_In, (Ha p). cbn [used_keys contains negb andb In].
      tauto. }
    rewrite Hf. match goal with |- (if ?c then _ else _) = _ <-> ?d = true => change d with c; destruct c end; split; intros H0; congruence.
  - destruct H as [e He]. rewrite He. split; intros H0; congruence.
Qed.
End Template.

Lemma check_templates_iff all ts : forallb (fun t => loops_ok (view (t_node t))) ts = true ->
  (check_templates all ts = Accept <-> forallb (wf_template all) ts = true).
Proof.
  induction ts as [|t r IH]; intros Hlo; cbn [check_templates forallb]; [tauto|].
  cbn [forallb] in Hlo. apply andb_true_iff in Hlo as [Ht Hr].
  pose proof (check_template_node_iff all (map fst (t_params t)) (t_node t) Ht) as H.
  unfold wf_template at 1. destruct (check_template_node all (map fst (t_params t)) (t_node t)).
  - rewrite (proj1 H eq_refl). cbn [andb]. apply IH. exact Hr.
  - destruct (wf_template_node all (map fst (t_params t)) (t_node t)); cbn [andb].
    + destruct H as [_ H]. discriminate (H eq_refl).
    + split; discriminate.
Qed.

(* CheckDataRefs accepts a registry exactly when the Spec calls it well-formed *)
Theorem check_registry_iff reg : registry_loops_ok reg = true ->
  (check_registry reg = Accept <-> wf_registry reg = true).
Proof. intros H. apply check_templates_iff. exact H. Qed.

Lemma file_namespace_spec body : file_namespace body = namespace_of body.
Proof. induction body as [|x r IH]; [reflexivity|]. destruct x; cbn [file_namespace namespace_of]; try reflexivity; try exact IH. Qed.

(* Registry.Add (regenerated expression): a folded header param is optional exactly when it
   carries the ? marker; a default value or a missing type does not matter *)
Lemma header_param_optional_spec opt has_default has_type : header_param_optional opt has_default has_type = opt.
Proof. destruct opt, has_default, has_type; reflexivity. Qed.

Lemma split_header_spec ns : split_header ns = (head_params ns, after_head ns).
Proof.
  induction ns as [|x r IH]; [reflexivity|]. destruct x; cbn [split_header head_params after_head]; try reflexivity.
  rewrite IH, header_param_optional_spec. reflexivity.
Qed.

Lemma soydoc_params_spec ps :
  forallb (fun n => match n with NSoyDocParam _ _ _ => true | _ => false end) ps = true ->
  soydoc_params ps = Some (flat_map (fun n => match n with NSoyDocParam _ name opt => [(name, opt)] | _ => [] end) ps).
Proof.
  induction ps as [|x r IH]; intros H; [reflexivity|]. cbn [forallb] in H. apply andb_true_iff in H as [Hx Hr].
  destruct x; try discriminate. cbn [soydoc_params flat_map app]. rewrite (IH Hr). reflexivity.
Qed.

Lemma after_head_suffix (P : rt -> bool) nodes :
  forallb P (map view nodes) = true -> forallb P (map view (after_head nodes)) = true.
Proof.
  induction nodes as [|x r IH]; intros H; [exact H|]. cbn [map forallb] in H. apply andb_true_iff in H as [Hx Hr].
  destruct x; cbn [after_head]; try (cbn [map forallb]; rewrite Hx, Hr; reflexivity). apply IH. exact Hr.
Qed.

(* template names: the incremental check of Add against [distinct] *)
Fixpoint fresh_from (seen new : list bstr) : bool :=
  match new with
  | [] => true
  | x :: r => negb (contains seen x) && fresh_from (seen ++ [x]) r
  end.

Lemma distinct_snoc seen x : distinct (seen ++ [x]) = distinct seen && negb (contains seen x).
Proof.
  induction seen as [|y s IH]; cbn [app distinct contains]; [reflexivity|].
  rewrite IH, contains_app. cbn [contains]. rewrite orb_false_r, (bstr_eqb_sym x y).
  destruct (contains s y), (bstr_eqb y x), (distinct s), (contains s x); reflexivity.
Qed.

Lemma distinct_app_fresh new : forall seen, distinct (seen ++ new) = distinct seen && fresh_from seen new.
Proof.
  induction new as [|x r IH]; intros seen; cbn [fresh_from].
  - rewrite app_nil_r, andb_true_r. reflexivity.
  - change (seen ++ x :: r) with (seen ++ [x] ++ r). rewrite app_assoc, IH, distinct_snoc, andb_assoc. reflexivity.
Qed.

Lemma fresh_from_app new1 : forall seen new2,
  fresh_from seen (new1 ++ new2) = fresh_from seen new1 && fresh_from (seen ++ new1) new2.
Proof.
  induction new1 as [|x r IH]; intros seen new2; cbn [app fresh_from].
  - rewrite app_nil_r. reflexivity.
  - rewrite IH, <- app_assoc, andb_assoc. reflexivity.
Qed.

Lemma existsb_name acc name : existsb (fun t => bstr_eqb (t_name t) name) acc = contains (map t_name acc) name.
Proof. induction acc as [|t r IH]; cbn [existsb map contains]; [reflexivity|]. rewrite IH. reflexivity. Qed.

Definition tnames (ts : list template) : list bstr := map t_name ts.

Lemma add_step (c E F : bool) (X : add_result) (acc : list template) t new :
  (if E && F then X = AddOk ((acc ++ [t]) ++ new) else exists r, X = AddRej r) ->
  if E && (negb c && F)
  then (if c then AddRej RDuplicateTemplate else X) = AddOk (acc ++ t :: new)
  else exists r, (if c then AddRej RDuplicateTemplate else X) = AddRej r.
Proof.
  destruct c, E, F; cbn [andb negb]; intros H; try (eexists; reflexivity); try exact H.
  rewrite H, <- app_assoc. reflexivity.
Qed.

Lemma add_templates_spec fname ns fb : forall prev acc,
  forallb template_typed (with_prev prev fb) = true ->
  if forallb exclusive_params (with_prev prev fb)
     && fresh_from (tnames acc) (tnames (flat_map (template_of fname ns) (with_prev prev fb)))
  then add_templates fname ns prev fb acc = AddOk (acc ++ flat_map (template_of fname ns) (with_prev prev fb))
  else exists r, add_templates fname ns prev fb acc = AddRej r.
Proof.
  induction fb as [|x r IH]; intros prev acc Hty.
  - cbn. rewrite app_nil_r. reflexivity.
  - cbn [with_prev forallb] in Hty. apply andb_true_iff in Hty as [Hx Hr].
    cbn [with_prev forallb flat_map].
    destruct x; try (cbn [add_templates exclusive_params template_of snd app andb]; apply IH; exact Hr).
    (* a template *)
    unfold template_typed in Hx. cbn [snd fst] in Hx.
    apply andb_true_iff in Hx as [Hx Hdoc]. apply andb_true_iff in Hx as [Hbody Hlo].
    match goal with |- context [NTemplate _ _ ?b0 _ _] => destruct b0; try discriminate end.
    cbn [add_templates].
    rewrite split_header_spec.
    assert (Hsd : (match prev with Some (NSoyDoc _ ps) => soydoc_params ps | _ => Some [] end) = Some (doc_params prev)).
    { destruct prev as [[]|]; try reflexivity. cbn [doc_params]. apply soydoc_params_spec. exact Hdoc. }
    rewrite Hsd, existsb_name. cbn [exclusive_params template_of snd fst app tnames map t_name fresh_from].
    fold (tnames acc).
    set (tn := Some (NTemplate p name (NList p0 nodes) autoescape private)).
    assert (Hstep : forall t, t_name t = name ->
              if forallb exclusive_params (with_prev tn r)
                 && fresh_from (tnames acc ++ [name]) (tnames (flat_map (template_of fname ns) (with_prev tn r)))
              then add_templates fname ns tn r (acc ++ [t]) = AddOk ((acc ++ [t]) ++ flat_map (template_of fname ns) (with_prev tn r))
              else exists r0, add_templates fname ns tn r (acc ++ [t]) = AddRej r0).
    { intros t Hn. specialize (IH tn (acc ++ [t]) Hr).
      unfold tnames in IH at 1. rewrite map_app in IH. cbn [map] in IH. rewrite Hn in IH. exact IH. }
    destruct (doc_params prev) as [|d ds], (head_params nodes) as [|h hs]; cbn [is_nil negb andb];
      try (apply add_step, Hstep; reflexivity).
    eexists. reflexivity.
Qed.

Definition file_ok (seen : list bstr) (f : soyfile) : bool :=
  match namespace_of (sf_body f) with Some _ => true | None => false end
  && forallb exclusive_params (with_prev None (sf_body f))
  && fresh_from seen (tnames (file_templates f)).
Fixpoint files_ok (seen : list bstr) (fs : list soyfile) : bool :=
  match fs with
  | [] => true
  | f :: r => file_ok seen f && files_ok (seen ++ tnames (file_templates f)) r
  end.

Lemma add_files_spec fs : files_shaped fs = true -> forall acc,
  if files_ok (tnames acc) fs
  then add_files acc fs = AddOk (acc ++ bundle_templates fs)
  else exists r, add_files acc fs = AddRej r.
Proof.
  induction fs as [|f r IH]; intros Hsh acc.
  - cbn. rewrite app_nil_r. reflexivity.
  - cbn [files_shaped forallb] in Hsh. apply andb_true_iff in Hsh as [Hf Hr].
    cbn [files_ok add_files bundle_templates flat_map]. unfold add_file, file_ok, file_templates.
    change (file_namespace (sf_body f)) with (namespace_of (sf_body f)).
    destruct (namespace_of (sf_body f)) as [ns|]; cbn [andb].
    2:{ eexists. reflexivity. }
    pose proof (add_templates_spec (sf_name f) ns (sf_body f) None acc Hf) as H1.
    destruct (forallb exclusive_params (with_prev None (sf_body f)) && fresh_from (tnames acc) _); cbn [andb].
    2:{ destruct H1 as [e ->]. eexists. reflexivity. }
    rewrite H1.
    specialize (IH Hr (acc ++ flat_map (template_of (sf_name f) ns) (with_prev None (sf_body f)))).
    unfold tnames in *. rewrite map_app in IH.
    fold (bundle_templates r).
    match type of IH with if ?c then _ else _ => destruct c end.
    + rewrite IH, app_assoc. reflexivity.
    + exact IH.
Qed.

Lemma andb_pairwise a1 b1 c1 a2 b2 c2 : (a1 && b1 && c1) && (a2 && b2 && c2) = (a1 && a2) && (b1 && b2) && (c1 && c2).
Proof. destruct a1, b1, c1, a2, b2; reflexivity. Qed.

Lemma files_ok_spec fs : forall seen,
  files_ok seen fs
  = forallb (fun f => match namespace_of (sf_body f) with Some _ => true | None => false end) fs
    && forallb (fun f => forallb exclusive_params (with_prev None (sf_body f))) fs
    && fresh_from seen (tnames (bundle_templates fs)).
Proof.
  induction fs as [|f r IH]; intros seen; [reflexivity|].
  cbn [files_ok forallb bundle_templates flat_map]. fold (bundle_templates r).
  unfold tnames at 2. rewrite map_app. fold (tnames (file_templates f)) (tnames (bundle_templates r)).
  rewrite fresh_from_app, IH. apply andb_pairwise.
Qed.

Lemma template_of_loops_ok fname ns pn t :
  template_typed pn = true -> In t (template_of fname ns pn) -> loops_ok (view (t_node t)) = true.
Proof.
  unfold template_typed, template_of. destruct pn as [prev x]. cbn [snd fst]. destruct x; try solve [intros _ []].
  match goal with |- context [loops_ok (view ?b0)] => destruct b0; try solve [intros _ []] end. intros Hty [<-|[]]. cbn [t_node].
  apply andb_true_iff in Hty as [Hty _]. apply andb_true_iff in Hty as [_ Hty].
  change (forallb loops_ok (map view nodes) = true) in Hty.
  change (forallb loops_ok (map view (after_head nodes)) && true = true). rewrite andb_true_r.
  apply after_head_suffix. exact Hty.
Qed.

Lemma bundle_loops_ok fs : files_shaped fs = true ->
  forallb (fun t => loops_ok (view (t_node t))) (bundle_templates fs) = true.
Proof.
  intros Hsh. apply forallb_forall. intros t Ht. unfold bundle_templates in Ht. apply in_flat_map in Ht as (f & Hf & Ht).
  unfold files_shaped in Hsh. rewrite forallb_forall in Hsh. specialize (Hsh f Hf). rewrite forallb_forall in Hsh.
  unfold file_templates in Ht. destruct (namespace_of (sf_body f)) as [ns|]; [|destruct Ht].
  apply in_flat_map in Ht as (pn & Hpn & Ht). eapply template_of_loops_ok; [apply Hsh; exact Hpn | exact Ht].
Qed.

(* Bundle.Compile (after parsing) accepts exactly the well-formed bundles *)
Theorem check_iff_wf fs : files_shaped fs = true ->
  (compile_check fs = Accept <-> wf_bundle fs = true).
Proof.
  intros Hsh. unfold compile_check, wf_bundle.
  pose proof (add_files_spec fs Hsh []) as H. cbn [app tnames map] in H.
  rewrite files_ok_spec in H.
  pose proof (distinct_app_fresh (tnames (bundle_templates fs)) []) as Hd. cbn [app distinct andb] in Hd.
  unfold tnames in Hd at 1. rewrite Hd. fold (tnames (bundle_templates fs)).
  match type of H with if ?c then _ else _ => destruct c end; cbn [andb].
  - rewrite H. apply (check_registry_iff (registry_of (bundle_templates fs) fs)). apply bundle_loops_ok. exact Hsh.
  - destruct H as [r ->]. split; intros H0; congruence.
Qed.
