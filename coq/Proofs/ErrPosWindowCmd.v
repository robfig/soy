(* C19, parse half: the window theorem (Proofs/ErrPosWindow.v) for the command-level parser
   Model/Parser.v -- one pass over every procedure, i.e. over every errorf / unexpected / expect
   site of parse.go's command half.  [eerr ts t c s]: the error (token t, class c, state s) is
   reported at the item received last or just before ([werr]), or -- a quoted attribute
   expression -- at the last or last-but-one item the sub-scanner of that expression delivered
   ([qerr]; the record of that scan is the head of c_scans). *)
From Soy Require Import Model.Bytes Model.Utf8 Model.Outcome Model.Num Model.Values Model.Ast Model.Token
  Model.RawText Model.ExprParser Model.Parser Generated.Tables Proofs.BytesBase Proofs.ErrPosWindow.
From Coq Require Import Lia List.
Import ListNotations.
Open Scope N_scope.

Section Cmd.
Variable inlen : N.
Variable lexq : bstr -> list tok.
Variable unq : bstr -> option bstr.
Variable pexpr : nat -> N -> pst -> presult node.
Variable efuel : list tok -> nat.
(* the expression parser keeps the window, over whatever item list it runs on *)
Hypothesis Hpexpr : forall ts f prec p, W ts p -> xpost ts (A:=node) (fun _ p' => W ts p') (pexpr f prec p).

Variable ts : list tok.

Definition qerr (t : tok) (c : bstr) (s : cst) : Prop :=
  is_prefix e_quoted c = true /\
  exists str base sr rest, c_scans s = sr :: rest /\
    (t = itm (map (shift_tok base) (lexq str)) (sc_recv sr) \/
     t = itm (map (shift_tok base) (lexq str)) (sc_recv sr - 1)%nat) /\
    (* positioned in the enclosing file, or (no enclosing text to point into) in the expression itself *)
    (t_pos t <= inlen \/ (base = 0 /\ t_pos t <= N.of_nat (length str))).
Definition eerr (t : tok) (c : bstr) (s : cst) : Prop := werr ts t (c_p s) \/ qerr t c s.

Definition gpost {A} (Q : A -> cst -> Prop) (r : cres A) : Prop :=
  match r with COk a s => Q a s | CErr t c s => eerr t c s | _ => True end.
Notation QW := (fun _ s => W ts (c_p s)).
Notation QB := (fun _ s => B ts (c_p s)).
Notation QR := (fun t s => B ts (c_p s) /\ t = cur (c_p s)).

Lemma gp_bind {A C} (Q1 : A -> cst -> Prop) (Q : C -> cst -> Prop) x f :
  gpost Q1 x -> (forall a s, Q1 a s -> gpost Q (f a s)) -> gpost Q (cbind x f).
Proof. destruct x; cbn; auto. Qed.
Lemma gp_weaken {A} (Q1 Q : A -> cst -> Prop) r : gpost Q1 r -> (forall a s, Q1 a s -> Q a s) -> gpost Q r.
Proof. destruct r; cbn; auto. Qed.

Lemma gp_error_at {A} (Q : A -> cst -> Prop) t c s : werr ts t (c_p s) -> gpost Q (c_error_at inlen t c s).
Proof. intros H. unfold c_error_at. destruct (_ <=? _); cbn; [left; exact H|exact I]. Qed.
Lemma gp_errorf {A} (Q : A -> cst -> Prop) c s : W ts (c_p s) -> gpost Q (c_errorf inlen c s).
Proof. intros H. unfold c_errorf. destruct (3 <=? _)%nat; [exact I|]. apply gp_error_at. apply err_tok_werr; exact H. Qed.
Lemma gp_unexp_w {A} (Q : A -> cst -> Prop) t ctx s : werr ts t (c_p s) -> gpost Q (c_unexp inlen t ctx s).
Proof. intros H. unfold c_unexp. destruct (tis t pit_Error); apply gp_error_at; exact H. Qed.
Lemma gp_unexp {A} (Q : A -> cst -> Prop) t ctx s : B ts (c_p s) -> t = cur (c_p s) -> gpost Q (c_unexp inlen t ctx s).
Proof. intros H ->. apply gp_unexp_w. apply cur_werr; exact H. Qed.
Lemma gp_next s : W ts (c_p s) -> gpost QR (c_next s).
Proof.
  intros H. unfold c_next. destruct (3 <=? _)%nat; [exact I|]. destruct (p_next (c_p s)) as [t p'] eqn:E.
  cbn. exact (next_B ts _ _ _ E H).
Qed.
(* a next() right after a next(): the item the first one returned is the one before the last *)
Lemma gp_next2 s : B ts (c_p s) ->
  gpost (fun t2 s2 => (B ts (c_p s2) /\ t2 = cur (c_p s2)) /\ prev ts (cur (c_p s)) (c_p s2)) (c_next s).
Proof.
  intros H. unfold c_next. destruct (3 <=? _)%nat; [exact I|]. destruct (p_next (c_p s)) as [t p'] eqn:E.
  cbn. destruct (next_prev ts _ _ _ E H) as (Hp & Hb & Ht). auto.
Qed.
Lemma gp_backup2 t s : prev ts t (c_p s) -> W ts (c_p (c_backup2 s t)).
Proof. apply backup2_W. Qed.
Lemma gp_backup_prev t s : prev ts t (c_p s) -> werr ts t (c_p (c_backup s)).
Proof. intros H. exact (proj2 (prev_backup ts _ _ H)). Qed.
Lemma gp_peek s : W ts (c_p s) -> gpost QW (c_peek s).
Proof.
  intros H. unfold c_peek. destruct (3 <=? _)%nat; [exact I|]. destruct (p_peek_tok (c_p s)) as [t p'] eqn:E.
  cbn. exact (peek_W ts _ _ _ E H).
Qed.
Lemma gp_expect typ ctx s : W ts (c_p s) -> gpost QR (c_expect inlen typ ctx s).
Proof.
  intros H. unfold c_expect. eapply gp_bind; [apply gp_next; exact H|]. intros t s1 [Hb Ht]. cbn beta.
  destruct (tis t typ); [cbn; auto|apply gp_unexp; auto].
Qed.
Lemma gp_backup s : B ts (c_p s) -> W ts (c_p (c_backup s)).
Proof. intros H. unfold c_backup. cbn [c_p set_p]. apply backup_W; exact H. Qed.
Lemma gp_lift_expr f prec s : W ts (c_p s) -> gpost QW (lift_expr inlen pexpr f prec s).
Proof.
  intros H. unfold lift_expr. pose proof (Hpexpr ts f prec (c_p s) H) as X.
  destruct (pexpr f prec (c_p s)); cbn in X |- *; auto. destruct (_ <=? _); cbn; [left; exact X|exact I].
Qed.
Lemma gp_quoted str s : W ts (c_p s) -> gpost QW (parse_quoted_expr inlen lexq pexpr efuel str s).
Proof.
  intros H. unfold parse_quoted_expr. destruct (3 <=? _)%nat; [exact I|]. cbv zeta.
  set (inside := (_ <=? _) && (_ <=? _)). set (base := if inside then _ else 0). set (wlen := if inside then inlen else _).
  set (ts' := map (shift_tok base) (lexq str)).
  pose proof (Hpexpr ts' (efuel ts') 0 (pst_init ts') (W_init ts')) as X.
  destruct (pexpr (efuel ts') 0 (pst_init ts')) as [n p'|t c p'|m|]; cbn in X |- *; auto.
  destruct (t_pos t <=? wlen) eqn:Eg; cbn; [|exact I]. apply N.leb_le in Eg.
  right. split; [exact (is_prefix_app_self e_quoted c)|].
  eexists str, base, _, _. split; [reflexivity|]. split; [exact X|].
  unfold wlen, base in *. destruct inside; [left; exact Eg|right; split; [reflexivity|exact Eg]].
Qed.

Lemma gp_notmsg {A} (Q : A -> cst -> Prop) t s (k : cres A) :
  B ts (c_p s) -> t = cur (c_p s) -> gpost Q k -> gpost Q (notmsg inlen t s k).
Proof. intros Hb Ht H. unfold notmsg. destruct (c_inmsg s); [apply gp_unexp; assumption|exact H]. Qed.

Hint Resolve conj I eq_refl B_W gp_errorf gp_unexp gp_unexp_w gp_next gp_next2 gp_peek gp_expect gp_backup gp_backup2 gp_backup_prev gp_lift_expr gp_quoted : gp.

(* One pass over a procedure: [gp_step] looks at the head of the program and applies the rule for it -- [gp_bind]
   with the postcondition of the first command (a primitive above, or a procedure already passed: the hints; the
   window when the first command is itself a conditional), a case split for a conditional, the window for a return.  Tokens come with the equation "is the item the last
   next() returned", which [gp_intro] substitutes. *)
Ltac gp_intro := intros ? ? ?; cbn beta in *; repeat match goal with H : _ /\ _ |- _ => destruct H end;
  repeat match goal with H : ?t = cur _ |- _ => subst t end.
Ltac gp_fin := cbn [gpost]; cbn beta; cbn [c_p set_ns add_alias set_inmsg add_scan fst snd]; eauto 3 with gp nocore.
Ltac gp_step :=
  match goal with
  | |- gpost _ (cbind (tail1 ?v _) _) => destruct v; cbn [tail1 cbind]
  | |- gpost _ (cbind (if _ then _ else _) _) => eapply (gp_bind QW); [|gp_intro]
  | |- gpost _ (cbind (match _ with _ => _ end) _) => eapply (gp_bind QW); [|gp_intro]
  | |- gpost _ (cbind _ _) => eapply gp_bind; [solve [eauto 3 with gp nocore]|gp_intro]
  | |- gpost _ (notmsg _ _ _ _) => apply gp_notmsg; [solve [eauto 3 with gp nocore] | solve [eauto 3 with gp nocore] | ]
  | |- gpost _ (if ?c then _ else _) => destruct c
  | |- gpost _ (match ?x with _ => _ end) => destruct x
  | |- gpost _ (let _ := _ in _) => cbv zeta
  | |- gpost _ (COk _ _) => solve [gp_fin]
  | |- gpost _ (CCrash _) => exact I
  | |- gpost _ CFuel => exact I
  | |- gpost _ _ => solve [eauto 3 with gp nocore]
  end.
Ltac gp_go := repeat gp_step.

Lemma gp_attrs_loop f : forall allowed acc s, W ts (c_p s) -> gpost QW (attrs_loop inlen unq f allowed acc s).
Proof. induction f as [|f IH]; intros allowed acc s H; cbn [attrs_loop]; gp_go. Qed.
Lemma gp_parse_autoescape attrs s : W ts (c_p s) -> gpost QW (parse_autoescape inlen attrs s).
Proof. intros H. unfold parse_autoescape. gp_go. Qed.
Lemma gp_bool_attr attrs k d s : W ts (c_p s) -> gpost QW (bool_attr inlen attrs k d s).
Proof. intros H. unfold bool_attr. gp_go. Qed.
Lemma gp_next_non_comment f : forall s, W ts (c_p s) -> gpost QR (next_non_comment f s).
Proof. induction f as [|f IH]; intros s H; cbn [next_non_comment]; gp_go. Qed.
Lemma gp_skip_comments f : forall t s, B ts (c_p s) -> t = cur (c_p s) -> gpost QR (skip_comments f t s).
Proof. induction f as [|f IH]; intros t s H Ht; cbn [skip_comments]; gp_go. Qed.
Lemma gp_text_run f : forall t s, W ts (c_p s) -> gpost QB (text_run f t s).
Proof. induction f as [|f IH]; intros t s H; cbn [text_run]; gp_go. Qed.
Lemma gp_soydoc_loop f : forall p ps s, W ts (c_p s) -> gpost QW (soydoc_loop inlen f p ps s).
Proof. induction f as [|f IH]; intros p ps s H; cbn [soydoc_loop]; gp_go. Qed.
Lemma gp_alias_loop f : forall n l s, W ts (c_p s) -> gpost QW (alias_loop inlen f n l s).
Proof. induction f as [|f IH]; intros n l s H; cbn [alias_loop]; gp_go. Qed.
Hint Resolve gp_attrs_loop gp_parse_autoescape gp_bool_attr gp_next_non_comment gp_skip_comments gp_text_run
  gp_soydoc_loop gp_alias_loop : gp.
Lemma gp_parse_alias f s : W ts (c_p s) -> gpost QW (parse_alias inlen f s).
Proof. intros H. unfold parse_alias. gp_go. Qed.
Lemma gp_dotted_name f : forall n s, W ts (c_p s) -> gpost QW (dotted_name f n s).
Proof. induction f as [|f IH]; intros n s H; cbn [dotted_name]; gp_go. Qed.
Hint Resolve gp_parse_alias gp_dotted_name : gp.
Lemma gp_parse_namespace f t s : W ts (c_p s) -> gpost QW (parse_namespace inlen unq f t s).
Proof. intros H. unfold parse_namespace. gp_go. Qed.
Hint Resolve gp_parse_namespace : gp.

Section Level.
Variable pe : N -> cst -> cres node.
Variable w : list N -> cst -> cres node.
Variable lf : nat.
Hypothesis Hpe : forall prec s, W ts (c_p s) -> gpost QW (pe prec s).
Hypothesis Hw : forall u s, W ts (c_p s) -> gpost QB (w u s).
Hint Resolve Hpe Hw : gp.

Lemma gp_directive_args f : forall args s, W ts (c_p s) -> gpost QW (directive_args pe f args s).
Proof. induction f as [|f IH]; intros args s H; cbn [directive_args]; gp_go. Qed.
Hint Resolve gp_directive_args : gp.
Lemma gp_cmd_print_loop f : forall pos e dirs s, W ts (c_p s) -> gpost QW (cmd_print_loop inlen pe lf f pos e dirs s).
Proof. induction f as [|f IH]; intros pos e dirs s H; cbn [cmd_print_loop]; gp_go. Qed.
Hint Resolve gp_cmd_print_loop : gp.
Lemma gp_cmd_print t s : W ts (c_p s) -> gpost QW (cmd_print inlen pe lf t s).
Proof. intros H. unfold cmd_print. gp_go. Qed.
Lemma gp_parse_let t s : W ts (c_p s) -> gpost QW (parse_let inlen unq pe w lf t s).
Proof. intros H. unfold parse_let. gp_go. Qed.
Lemma gp_parse_css t s : W ts (c_p s) -> gpost QW (parse_css inlen lexq pexpr efuel t s).
Proof. intros H. unfold parse_css. gp_go. Qed.
Lemma gp_call_name_loop f : forall n s, W ts (c_p s) -> gpost QW (call_name_loop f n s).
Proof. induction f as [|f IH]; intros n s H; cbn [call_name_loop]; gp_go. Qed.
Hint Resolve gp_call_name_loop : gp.

Lemma gp_call_name s : W ts (c_p s) -> gpost QW (call_name lf s).
Proof. intros H. unfold call_name. gp_go. Qed.
Lemma gp_orphan_text f : forall t s, B ts (c_p s) -> t = cur (c_p s) -> gpost QR (orphan_text inlen lf f t s).
Proof. induction f as [|f IH]; intros t s H Ht; cbn [orphan_text]; gp_go. Qed.
Hint Resolve gp_cmd_print gp_parse_let gp_parse_css gp_call_name gp_orphan_text : gp.

Lemma gp_param_attr_form rec params initial key0 s :
  (forall ps s', W ts (c_p s') -> gpost QW (rec ps s')) -> W ts (c_p s) ->
  gpost QW (param_attr_form inlen lexq unq pexpr efuel w lf rec params initial key0 s).
Proof. intros Hrec H. unfold param_attr_form. gp_go. Qed.
Hint Resolve gp_param_attr_form : gp.
Lemma gp_call_params_loop f : forall params s, W ts (c_p s) ->
  gpost QW (call_params_loop inlen lexq unq pexpr efuel pe w lf f params s).
Proof. induction f as [|f IH]; intros params s H; cbn [call_params_loop]; gp_go. Qed.
Hint Resolve gp_call_params_loop : gp.
Lemma gp_parse_call t s : W ts (c_p s) -> gpost QW (parse_call inlen lexq unq pexpr efuel pe w lf t s).
Proof. intros H. unfold parse_call. gp_go. Qed.
Lemma gp_case_loop f : forall t vs s, W ts (c_p s) -> gpost QW (case_loop inlen pe w f t vs s).
Proof. induction f as [|f IH]; intros t vs s H; cbn [case_loop]; gp_go. Qed.
Hint Resolve gp_parse_call gp_case_loop : gp.
Lemma gp_switch_loop f : forall pos endt v cs s, W ts (c_p s) -> gpost QW (switch_loop inlen pe w lf f pos endt v cs s).
Proof. induction f as [|f IH]; intros pos endt v cs s H; cbn [switch_loop]; gp_go. Qed.
Hint Resolve gp_switch_loop : gp.
Lemma gp_parse_switch t endt s : W ts (c_p s) -> gpost QW (parse_switch inlen pe w lf t endt s).
Proof. intros H. unfold parse_switch. gp_go. Qed.
Lemma gp_plural_cases cs : forall cases d s, W ts (c_p s) -> gpost QW (plural_cases inlen cs cases d s).
Proof. induction cs as [|c r IH]; intros cases d s H; cbn [plural_cases]; gp_go. Qed.
Hint Resolve gp_parse_switch gp_plural_cases : gp.
Lemma gp_parse_plural t s : B ts (c_p s) -> t = cur (c_p s) -> gpost QW (parse_plural inlen pe w lf t s).
Proof. intros H Ht. unfold parse_plural. gp_go. Qed.
Lemma gp_parse_for t s : W ts (c_p s) -> gpost QW (parse_for inlen pe w t s).
Proof. intros H. unfold parse_for. gp_go. Qed.
Lemma gp_if_loop f : forall pos conds ie s, W ts (c_p s) -> gpost QW (if_loop inlen pe w f pos conds ie s).
Proof. induction f as [|f IH]; intros pos conds ie s H; cbn [if_loop]; gp_go. Qed.
Lemma gp_parse_msg t s : W ts (c_p s) -> gpost QW (parse_msg inlen unq w lf t s).
Proof. intros H. unfold parse_msg. gp_go. Qed.
Lemma gp_parse_template t s : W ts (c_p s) -> gpost QW (parse_template inlen unq w lf t s).
Proof. intros H. unfold parse_template. gp_go. Qed.
Lemma gp_parse_header_param t s : W ts (c_p s) -> gpost QW (parse_header_param inlen pe t s).
Proof. intros H. unfold parse_header_param. gp_go. Qed.
Hint Resolve gp_parse_plural gp_parse_for gp_if_loop gp_parse_msg gp_parse_template gp_parse_header_param : gp.

Lemma gp_begin_tag s : W ts (c_p s) -> gpost QW (begin_tag inlen lexq unq pexpr efuel pe w lf s).
Proof. intros H. unfold begin_tag. gp_go. Qed.
Hint Resolve gp_begin_tag : gp.

(* textOrTag: on "halt" the state is the one right after a next() *)
Notation QT := (fun (r : option node * bool) s => W ts (c_p s) /\ if snd r then B ts (c_p s) else True).
Lemma gp_text_or_tag t until s : B ts (c_p s) -> t = cur (c_p s) ->
  gpost QT (text_or_tag inlen lexq unq pexpr efuel pe w lf t until s).
Proof. intros Hb Ht. unfold text_or_tag. cbv zeta. gp_go. Qed.

Lemma gp_item_list_loop f : forall until pos acc s, W ts (c_p s) ->
  gpost QB (item_list_loop inlen lexq unq pexpr efuel pe w lf f until pos acc s).
Proof.
  induction f as [|f IH]; intros unt pos acc s H; cbn [item_list_loop]; [exact I|].
  eapply gp_bind; [apply gp_next; exact H|]. intros token s1 [Hb1 Ht1]. cbn beta. cbv zeta.
  eapply gp_bind; [apply gp_text_or_tag; eassumption|]. intros [x halt] s2 [H2 Hh]. cbn [snd] in *.
  destruct halt; [exact Hh|apply IH; exact H2].
Qed.
End Level.

Theorem gp_item_list fuel : forall until s, W ts (c_p s) -> gpost QB (item_list inlen lexq unq pexpr efuel fuel until s).
Proof.
  induction fuel as [|f IH]; intros unt s H; cbn [item_list]; [exact I|].
  apply gp_item_list_loop; [intros; apply gp_lift_expr; assumption|exact IH|exact H].
Qed.
End Cmd.

(* parse.SoyFile: the error it returns is reported at the item the parser received last from the
   file's scanner or at the one before it; an error inside a quoted attribute expression, at the
   last or last-but-one item that expression's own scanner delivered *)
Definition quoted_window (inlen : N) (lexq : bstr -> list tok) (t : tok) (c : bstr) (scans : list scanrec) : Prop :=
  is_prefix e_quoted c = true /\
  exists str base sr, In sr scans /\
    (t = itm (map (shift_tok base) (lexq str)) (sc_recv sr) \/
     t = itm (map (shift_tok base) (lexq str)) (sc_recv sr - 1)%nat) /\
    (t_pos t <= inlen \/ (base = 0 /\ t_pos t <= N.of_nat (length str))).

Theorem parse_file_error_window inlen lexq unq pexpr efuel fuel ts t c st :
  (forall ts f prec p, W ts p -> xpost ts (A:=node) (fun _ p' => W ts p') (pexpr f prec p)) ->
  po_result (parse_file inlen lexq unq pexpr efuel fuel ts) = PErr t c st ->
  werr ts t st \/ quoted_window inlen lexq t c (po_scans (parse_file inlen lexq unq pexpr efuel fuel ts)).
Proof.
  intros Hpe. unfold parse_file.
  pose proof (gp_item_list inlen lexq unq pexpr efuel Hpe ts fuel u_eof (cst_init ts) (W_init ts)) as H.
  destruct (item_list _ _ _ _ _ fuel u_eof (cst_init ts)) as [n s|t' c' s|m|]; cbn [po_result po_scans]; intros E; inversion E; subst; clear E.
  cbn in H. destruct H as [H|(Hq & str & base & sr & rest & Hs & Ht & Hpos)]; [left; exact H|right].
  split; [exact Hq|]. exists str, base, sr. split; [|split; [exact Ht|exact Hpos]].
  right. apply in_rev. rewrite rev_involutive. rewrite Hs. left; reflexivity.
Qed.

Theorem soy_file_error_window inlen lexq unq ts t c st :
  po_result (soy_file inlen lexq unq ts) = PErr t c st ->
  werr ts t st \/ quoted_window inlen lexq t c (po_scans (soy_file inlen lexq unq ts)).
Proof.
  unfold soy_file. apply parse_file_error_window. intros ts' f prec p H. apply xp_parse_expr. exact H.
Qed.
