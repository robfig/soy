(* C14, token grammar: basic facts about the lexers and the recogniser of
   Spec/JsSyntax.v -- composition over append, the "emits" relation between a
   chunk list and a transition of the recogniser, lexing of names and numbers.
   (Bracket balance of every accepted token list: Proofs/JsWfBalance.v js_parse_balanced.) *)
From Soy Require Import Model.Bytes Model.Num Model.Values Model.Outcome Model.Ast Model.JsGen.
From Soy Require Import Spec.JsSyntax Spec.JsShape.
From Soy Require Import Proofs.BytesBase Proofs.JsWfSplitBase Proofs.JsWfSplit Proofs.JsWfTail Proofs.JsWfLeaf Proofs.JsWfStr.
Open Scope N_scope.

Lemma js_run_app md a : forall b m s,
  js_run md (a ++ b) m s =
  match js_run md a m s with
  | Some (m', s', d) => match js_run md b m' s' with Some (m'', s'', d') => Some (m'', s'', d ++ d') | None => None end
  | None => None
  end.
Proof.
  induction a as [|t a IH]; intros b m s; cbn [app js_run].
  - destruct (js_run md b m s) as [[[? ?] ?]|]; reflexivity.
  - destruct (js_step md m s t) as [[[m1 s1] d1]|]; [|reflexivity].
    rewrite IH. destruct (js_run md a m1 s1) as [[[m2 s2] d2]|]; [|reflexivity].
    destruct (js_run md b m2 s2) as [[[m3 s3] d3]|]; [|reflexivity]. rewrite app_assoc. reflexivity.
Qed.

Lemma lex_chunks_from_app a : forall b m,
  lex_chunks_from m (a ++ b) =
  match lex_chunks_from m a with
  | Some (ta, m') => match lex_chunks_from m' b with Some (tb, m'') => Some (ta ++ tb, m'') | None => None end
  | None => None
  end.
Proof.
  induction a as [|c a IH]; intros b m; cbn [app lex_chunks_from].
  - destruct (lex_chunks_from m b) as [[? ?]|]; reflexivity.
  - destruct (lex_chunk m c) as [[t1 m1]|]; [|reflexivity]. rewrite IH.
    destruct (lex_chunks_from m1 a) as [[t2 m2]|]; [|reflexivity]. cbn [option_map].
    destruct (lex_chunks_from m2 b) as [[t3 m3]|]; [|reflexivity]. cbn [option_map]. rewrite app_assoc. reflexivity.
Qed.

(* the bytes of the chunks, followed by anything the grammar accepts next, lex to the same tokens and then go on *)
Definition bytes_ok (md : bool) (cs : list chunk) (ts : list jstoken) (m' : mode) : Prop :=
  forall is_print rest, cont_ok md m' rest ->
    lex_text 0 LNormal (render_chunks is_print cs ++ rest) = option_map (fun '(t0, m0) => (ts ++ t0, m0)) (lex_text 0 LNormal rest).

(* the chunks [cs], lexed from and to the normal mode, take the recogniser from (m, s) to (m', s') and declare d;
   their rendering lexes to the same tokens *)
Definition emits (md : bool) (cs : list chunk) (m : mode) (s : list frame) (m' : mode) (s' : list frame) (d : list jsdecl) : Prop :=
  exists ts, lex_chunks_from LNormal cs = Some (ts, LNormal) /\ js_run md ts m s = Some (m', s', d) /\ bytes_ok md cs ts m'.

Lemma render_chunks_app ip a c : render_chunks ip (a ++ c) = render_chunks ip a ++ render_chunks ip c.
Proof. induction a as [|x a IH]; [reflexivity|]. cbn [app render_chunks]. rewrite IH, app_assoc. reflexivity. Qed.
Lemma prepend_app ta tb (x : option (list jstoken * lexmode)) :
  option_map (fun '(t0, m0) => (ta ++ t0, m0)) (option_map (fun '(t0, m0) => (tb ++ t0, m0)) x)
  = option_map (fun '(t0, m0) => ((ta ++ tb) ++ t0, m0)) x.
Proof. destruct x as [[t0 m0]|]; cbn; [rewrite app_assoc|]; reflexivity. Qed.

Lemma emits_nil md m s : emits md [] m s m s [].
Proof. exists []. split; [reflexivity|]. split; [reflexivity|]. intros ip rest _. cbn [render_chunks app]. rewrite prepend_nil. reflexivity. Qed.

Lemma cont_ok_app md cs tb m1 s1 m2 s2 d ip rest :
  js_run md tb m1 s1 = Some (m2, s2, d) -> bytes_ok md cs tb m2 -> cont_ok md m2 rest -> cont_ok md m1 (render_chunks ip cs ++ rest).
Proof.
  intros R B C. unfold cont_ok. rewrite (B ip rest C). destruct C as (ts_r & m_r & L & A). rewrite L. cbn [option_map].
  exists (tb ++ ts_r), m_r. split; [reflexivity|]. destruct tb as [|t tb'].
  - cbn [js_run] in R. injection R as <- _ _. exact A.
  - cbn [app]. cbn [js_run] in R. destruct (js_step md m1 s1 t) as [r|] eqn:E; [|discriminate R]. exists s1, r. exact E.
Qed.

Lemma emits_app md a b m s m1 s1 d1 m2 s2 d2 :
  emits md a m s m1 s1 d1 -> emits md b m1 s1 m2 s2 d2 -> emits md (a ++ b) m s m2 s2 (d1 ++ d2).
Proof.
  intros (ta & La & Ra & Ba) (tb & Lb & Rb & Bb). exists (ta ++ tb). split; [|split].
  - rewrite lex_chunks_from_app, La, Lb. reflexivity.
  - rewrite js_run_app, Ra, Rb. reflexivity.
  - intros ip rest C. rewrite render_chunks_app, <- app_assoc.
    rewrite (Ba ip _ (cont_ok_app _ _ _ _ _ _ _ _ ip _ Rb Bb C)). rewrite (Bb ip rest C). apply prepend_app.
Qed.

Lemma emits_app0 md a b m s m1 s1 m2 s2 :
  emits md a m s m1 s1 [] -> emits md b m1 s1 m2 s2 [] -> emits md (a ++ b) m s m2 s2 [].
Proof. intros A B. exact (emits_app md a b m s m1 s1 [] m2 s2 [] A B). Qed.

Lemma emits_cons md c b m s m1 s1 d1 m2 s2 d2 :
  emits md [c] m s m1 s1 d1 -> emits md b m1 s1 m2 s2 d2 -> emits md (c :: b) m s m2 s2 (d1 ++ d2).
Proof. intros A B. exact (emits_app md [c] b _ _ _ _ _ _ _ _ A B). Qed.

Definition chunk_tail (c : chunk) (ts : list jstoken) (m' : mode) : Prop :=
  match c with
  | CText t | CNum t => tail_ok t ts m'
  | CName _ => word_free m' = true
  | CStrLit _ _ | CFile _ => True
  end.
Lemma emits_toks1 md c ts m s m' s' d :
  lex_chunk LNormal c = Some (ts, LNormal) -> js_run md ts m s = Some (m', s', d) -> chunk_tail c ts m' -> emits md [c] m s m' s' d.
Proof.
  intros L R T. exists ts. split; [cbn [lex_chunks_from]; rewrite L; cbn; rewrite app_nil_r; reflexivity|]. split; [exact R|].
  intros ip rest C. cbn [render_chunks]. rewrite app_nil_r. destruct c as [t|q s0|x|x|x]; cbn [lex_chunk chunk_tail render_chunk] in *.
  - eapply text_leaf; eassumption.
  - destruct ((q =? 39) || (q =? 34)) eqn:Eq; [|discriminate L]. injection L as <-.
    assert (Hq : q = 39 \/ q = 34) by (apply orb_prop in Eq; destruct Eq as [E|E]; apply N.eqb_eq in E; auto).
    pose proof (strlit_one_token ip q Hq s0 rest) as S1. cbn [render_chunk] in S1. rewrite S1.
    destruct (lex_text 0 LNormal rest) as [[t0 m0]|]; reflexivity.
  - destruct (lex_name x) as [tn|] eqn:En; [|discriminate L]. cbn in L. injection L as <-.
    destruct (name_bytes x tn En) as (Lx & Xn & Xl & Xi). eapply text_leaf; [exact Lx| |exact C].
    unfold tail_ok. destruct x as [|c0 x0]; [exact I|]. apply tail_okb_word; [exact Xl|exact T|]. rewrite Xi. discriminate.
  - destruct (lex_num x) as [tn|] eqn:En; [|discriminate L]. cbn in L. injection L as <-.
    eapply text_leaf; [apply num_bytes; exact En|exact T|exact C].
  - discriminate L.
Qed.

(* several chunks whose rendering is one known text *)
Lemma emits_block md cs T ts m s m' s' d :
  (forall ip, render_chunks ip cs = T) -> lex_chunks_from LNormal cs = Some (ts, LNormal) -> lex_text 0 LNormal T = Some (ts, LNormal) ->
  js_run md ts m s = Some (m', s', d) -> tail_ok T ts m' -> emits md cs m s m' s' d.
Proof.
  intros Hr L LT R Tl. exists ts. split; [exact L|]. split; [exact R|]. intros ip rest C. rewrite Hr. eapply text_leaf; eassumption.
Qed.

Lemma lex_indent n : lex_text 0 LNormal (indent_text n) = Some ([], LNormal).
Proof. induction n as [|n IH]; [reflexivity|]. cbn [indent_text]. unfold t_ind. cbn [app]. cbn [lex_text is_space N.eqb Pos.eqb orb]. exact IH. Qed.
Lemma lex_indent_app n rest : lex_text 0 LNormal (indent_text n ++ rest) = lex_text 0 LNormal rest.
Proof. induction n as [|n IH]; [reflexivity|]. cbn [indent_text]. unfold t_ind. cbn [app]. cbn [lex_text is_space N.eqb Pos.eqb orb]. exact IH. Qed.

Lemma emits_indent md n m s : emits md [CText (indent_text n)] m s m s [].
Proof.
  exists []. split; [|split; [reflexivity|]].
  - cbn [lex_chunks_from lex_chunk]. rewrite lex_indent. reflexivity.
  - intros ip rest _. cbn [render_chunks render_chunk]. rewrite app_nil_r, lex_indent_app, prepend_nil. reflexivity.
Qed.

(* a chunk CName s that is one identifier token *)
Definition name_ok (s : bstr) : Prop := lex_name s = Some [TId s].
(* an identifier or a reserved word, without dots: one token that may follow '.' or be an object key *)
Definition iname_ok (s : bstr) : Prop := lex_name s = Some [tok_of_ident s].


Lemma split_dots_nodot s : forall cur, forallb (fun c => negb (c =? 46)) s = true -> split_dots cur s = [rev cur ++ s].
Proof.
  induction s as [|c s IH]; intros cur H; cbn [split_dots].
  - rewrite app_nil_r. reflexivity.
  - cbn [forallb] in H. apply andb_prop in H. destruct H as [H1 H2]. apply negb_true_iff in H1. rewrite H1.
    rewrite IH by exact H2. cbn [rev]. rewrite <- app_assoc. reflexivity.
Qed.

Lemma ident_part_nodot c : is_ident_part c = true -> negb (c =? 46) = true.
Proof.
  intro H. apply negb_true_iff. apply N.eqb_neq. intro E. subst. vm_compute in H. discriminate.
Qed.

Lemma ident_ok_nodot s : ident_ok s = true -> forallb (fun c => negb (c =? 46)) s = true.
Proof.
  destruct s as [|c r]; [discriminate|]. cbn [ident_ok]. intro H. apply andb_prop in H. destruct H as [H1 H2].
  cbn [forallb]. apply andb_true_intro. split.
  - apply ident_part_nodot. unfold is_ident_part. rewrite H1. reflexivity.
  - clear H1. induction r as [|d r IH]; [reflexivity|]. cbn [forallb] in *. apply andb_prop in H2. destruct H2 as [H3 H4].
    apply andb_true_intro. split; [apply ident_part_nodot; exact H3|apply IH; exact H4].
Qed.

Lemma lex_name_ident s : ident_ok s = true -> lex_name s = Some [tok_of_ident s].
Proof.
  intro H. unfold lex_name. rewrite split_dots_nodot by (apply ident_ok_nodot; exact H). cbn [rev app forallb].
  rewrite H. reflexivity.
Qed.

(* keywords contain no underscore, no dollar and no digit *)
Definition kw_free (c : N) : bool := (c =? 95) || (c =? 36) || is_digit c.
Lemma kw_table_plain : forallb (fun e => negb (existsb kw_free (fst e))) kw_table = true.
Proof. vm_compute. reflexivity. Qed.


Lemma not_kw s : existsb kw_free s = true -> tok_of_ident s = TId s.
Proof.
  intro H. unfold tok_of_ident. destruct (assoc_s s kw_table) as [k|] eqn:E; [|reflexivity]. exfalso.
  apply assoc_s_In in E. pose proof kw_table_plain as F. rewrite forallb_forall in F. specialize (F _ E).
  cbn [fst] in F. rewrite H in F. discriminate.
Qed.

Lemma name_ok_intro s : ident_ok s = true -> existsb kw_free s = true -> name_ok s.
Proof. intros H1 H2. unfold name_ok. rewrite lex_name_ident by exact H1. rewrite not_kw by exact H2. reflexivity. Qed.

Lemma ident_ok_app s t : ident_ok s = true -> forallb is_ident_part t = true -> ident_ok (s ++ t) = true.
Proof.
  destruct s as [|c r]; [discriminate|]. cbn [ident_ok app]. intros H Ht. apply andb_prop in H. destruct H as [H1 H2].
  rewrite H1. cbn [andb]. rewrite forallb_app, H2, Ht. reflexivity.
Qed.

Lemma existsb_app_r {A} (p : A -> bool) a c : existsb p c = true -> existsb p (a ++ c) = true.
Proof. intro H. rewrite existsb_app, H. apply orb_true_r. Qed.
