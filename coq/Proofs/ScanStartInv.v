(* The run invariant of the scanner model that leads to number items: at the states from which
   lexNumber is reached (lexInsideTag, lexBeginTag, lexNumber) nothing is pending (start = pos), and
   lexNumber is entered at a digit or at a "-" (never at "+").  Together with the local lemma about
   lexNumber (Proofs/ScanFloatShape.v) this shows that every float item has a text of the syntax
   -?D+(.D+)?(e[+-]?D+)?.

   All lemmas here are of the partial-correctness form  f l = Ok x -> ...  and need no hypothesis on
   unicode.IsLetter / unicode.IsDigit nor on the bounds of the cursor. *)
From Soy Require Import Model.Bytes Model.Utf8 Model.Outcome Model.Token Generated.Tables Model.Lexer Model.NumLit Proofs.LexRun.
From Coq Require Import ZifyBool Lia.
Open Scope Z_scope.

(* a float item has a text that NumLit.split_float accepts *)
Definition float_ok (t : tok) : Prop := t_typ t = itemFloat -> exists fl, split_float (t_val t) = Some fl.
Definition fgood (l : lx) : Prop := Forall float_ok (l_out l).
(* the states on the way to lexNumber *)
Definition in_F (st : lstate) : Prop := st = LInsideTag \/ st = LBeginTag \/ st = LNumber.

Lemma bind_ok_inv {A B} (x : outcome A) (f : A -> outcome B) v : bind x f = Ok v -> exists a, x = Ok a /\ f a = Ok v.
Proof. destruct x; cbn; intros H; try discriminate. eauto. Qed.

Lemma nonfloat_ok t : t_typ t <> itemFloat -> float_ok t.
Proof. intros H E. contradiction. Qed.

(* an ASCII rune is decoded from exactly one byte, itself *)
Lemma decode_ascii_inv (s : bstr) r w : decode_rune s = (r, w) -> (r < 128)%N -> exists rest, s = r :: rest /\ w = 1%nat.
Proof.
  destruct s as [|b0 s]; unfold decode_rune, is_cont, in_range, rune_error.
  - intros H; injection H as <- <-. lia.
  - destruct s as [|b1 [|b2 [|b3 s]]];
    repeat match goal with |- context [if ?c then _ else _] => destruct c eqn:? end;
    intros H; injection H as <- <-; intros Hr; try lia;
    try (exfalso; repeat match goal with H : context [if ?c then _ else _] |- _ => destruct c eqn:? end; lia);
    eexists; split; reflexivity.
Qed.

Section Prims.
Variable inp : bstr.
Notation ilen := (Z.of_nat (length inp)).

(* next: nothing but the cursor moves, and backup undoes it *)
Lemma next_frame l r l1 : next inp ilen l = Ok (r, l1) ->
  l_out l1 = l_out l /\ l_start l1 = l_start l /\ l_last l1 = l_last l /\ l_dd l1 = l_dd l /\ l_pos l1 - l_width l1 = l_pos l.
Proof.
  unfold next. destruct (ilen <=? l_pos l); [intros H; injection H as <- <-; cbn; repeat split; lia|].
  destruct (l_pos l <? 0); [discriminate|]. destruct (decode_rune _) as [r' w]. intros H; injection H as <- <-. cbn. repeat split; lia.
Qed.

(* an ASCII rune read: one byte, at a position inside the input *)
Lemma next_ascii_inv l r l1 : next inp ilen l = Ok (r, l1) -> 0 <= r < 128 ->
  exists c rest, r = Z.of_N c /\ (c < 128)%N /\ 0 <= l_pos l /\ drop (Z.to_nat (l_pos l)) inp = c :: rest /\
                 l_pos l1 = l_pos l + 1 /\ l_width l1 = 1.
Proof.
  unfold next. destruct (ilen <=? l_pos l) eqn:E; [intros H; injection H as <- <-; unfold eof; lia|].
  destruct (l_pos l <? 0) eqn:E2; [discriminate|]. destruct (decode_rune _) as [r' w] eqn:Ed. intros H; injection H as <- <-. intros Hr.
  destruct (decode_ascii_inv _ _ _ Ed ltac:(lia)) as (rest & Hd & ->). exists r', rest. cbn. repeat split; try lia. exact Hd.
Qed.

(* the rune next returns depends on the position only *)
Lemma next_rune_det la lb ra rb la1 lb1 : l_pos la = l_pos lb ->
  next inp ilen la = Ok (ra, la1) -> next inp ilen lb = Ok (rb, lb1) -> ra = rb.
Proof.
  unfold next. intros ->. destruct (ilen <=? l_pos lb); [congruence|]. destruct (l_pos lb <? 0); [discriminate|].
  destruct (decode_rune _) as [r w]. congruence.
Qed.

(* lexNumber is not entered at a "+" *)
Definition numhead (l : lx) : Prop := forall r l1, next inp ilen l = Ok (r, l1) -> r <> 43.

End Prims.

Definition sinv (inp : bstr) (st : lstate) (l : lx) : Prop :=
  fgood l /\ (in_F st -> l_start l = l_pos l) /\ (st = LNumber -> numhead inp l).

Lemma assoc_s_forallb {A} (P : A -> bool) k (tbl : list (bstr * A)) v :
  assoc_s k tbl = Some v -> forallb (fun kv => P (snd kv)) tbl = true -> P v = true.
Proof.
  induction tbl as [|[k' v'] tbl IH]; cbn; [discriminate|].
  intros H Hall. apply Bool.andb_true_iff in Hall. destruct Hall as [H1 H2].
  destruct (bstr_eqb k k'); [injection H as <-; exact H1|auto].
Qed.

Lemma arith_items_nf sym t : assoc_s sym arith_items = Some t -> t <> itemFloat.
Proof.
  intros H. apply (assoc_s_forallb (fun t => negb (t =? itemFloat)%N)) in H; [|vm_compute; reflexivity].
  intros ->. discriminate H.
Qed.

Lemma builtin_idents_nf w t : assoc_s w builtin_idents = Some t -> t <> itemFloat.
Proof.
  intros H. apply (assoc_s_forallb (fun t => negb (t =? itemFloat)%N)) in H; [|vm_compute; reflexivity].
  intros ->. discriminate H.
Qed.

Lemma arith_item_nf sym : arith_item sym <> itemFloat.
Proof. unfold arith_item. destruct (assoc_s sym arith_items) eqn:E; [eapply arith_items_nf; eauto|discriminate]. Qed.

Section Run.
Variable uni_letter uni_digit : Z -> bool.
Variable inp : bstr.
Variable base : Z.
Notation ilen := (Z.of_nat (length inp)).
Notation step := (Lexer.step uni_letter uni_digit inp ilen base).

(* inversion of  <monadic body> = Ok v  along the one hypothesis H *)
Ltac inv H :=
  lazymatch type of H with
  | bind _ _ = Ok _ =>
      let a := fresh "a" in let E := fresh "E" in
      apply bind_ok_inv in H; destruct H as (a & E & H); cbn beta in H;
      repeat (lazymatch type of a with prod _ _ => destruct a as [a ?] end);
      cbn beta iota in H; inv E; cbn beta iota in H; inv H
  | (let x := _ in _) = Ok _ => cbv zeta in H; inv H
  | (if ?c then _ else _) = Ok _ => let C := fresh "C" in destruct c eqn:C; inv H
  | match ?x with _ => _ end = Ok _ => let C := fresh "C" in destruct x eqn:C; inv H
  | Ok _ = Ok _ => injection H as ?; subst
  | _ => try discriminate H
  end.

Lemma next_good l r l1 : next inp ilen l = Ok (r, l1) -> fgood l -> fgood l1.
Proof. intros H. apply next_frame in H. unfold fgood. destruct H as (-> & _). auto. Qed.

Lemma peek_ok l r l1 : peek inp ilen l = Ok (r, l1) ->
  (fgood l -> fgood l1) /\ l_start l1 = l_start l /\ l_pos l1 = l_pos l /\ l_last l1 = l_last l /\
  exists l0, next inp ilen l = Ok (r, l0) /\ l_width l1 = l_width l0.
Proof.
  unfold peek. intros H. inv H. pose proof (next_frame _ _ _ _ E) as (H1 & H2 & H3 & H4 & H5).
  unfold fgood. cbn [backup set_pos l_out l_start l_pos l_last l_width]. rewrite H1.
  repeat split; auto; try lia. eauto.
Qed.

Lemma emit_ok t l l' : emit inp ilen base t l = Ok l' -> l_start l' = l_pos l' /\ (t <> itemFloat -> fgood l -> fgood l').
Proof.
  unfold emit. intros H. inv H. cbn [l_start l_pos]. split; [reflexivity|]. intros Ht Hg. unfold fgood. cbn [l_out].
  constructor; [apply nonfloat_ok; exact Ht|]. destruct (ilen <? l_pos l); exact Hg.
Qed.

Lemma errorf_ok c l st l' : errorf base c l = Ok (st, l') -> st = LDone /\ (fgood l -> fgood l').
Proof.
  unfold errorf. intros H. inv H. split; [reflexivity|]. intros Hg. unfold fgood. cbn [l_out].
  constructor; [apply nonfloat_ok; cbn; discriminate|exact Hg].
Qed.

Lemma emit_to_ok t st l st' l' : emit_to inp ilen base t st l = Ok (st', l') ->
  st' = st /\ l_start l' = l_pos l' /\ (t <> itemFloat -> fgood l -> fgood l').
Proof. unfold emit_to. intros H. inv H. apply emit_ok in E. tauto. Qed.

Lemma accept_ok v l b l1 : accept inp ilen v l = Ok (b, l1) -> (fgood l -> fgood l1) /\ l_start l1 = l_start l.
Proof.
  unfold accept. intros H. inv H; pose proof (next_frame _ _ _ _ E) as (H1 & H2 & _); unfold fgood; cbn [backup set_pos l_out l_start]; rewrite H1; auto.
Qed.

Lemma skip_space_loop_ok fuel : forall l l1, skip_space_loop inp ilen fuel l = Ok l1 -> fgood l -> fgood l1.
Proof.
  induction fuel; intros l l1 H; cbn [skip_space_loop] in H; inv H; intros Hg; eauto using next_good.
Qed.

Lemma skip_space_ok l l1 : skip_space inp ilen l = Ok l1 -> (fgood l -> fgood l1) /\ l_start l1 = l_pos l1.
Proof.
  unfold skip_space. intros H. inv H. split; [|reflexivity]. intros Hg. eapply skip_space_loop_ok in E; eauto.
Qed.

Lemma alnum_loop_ok fuel : forall l l1, alnum_loop uni_letter uni_digit inp ilen fuel l = Ok l1 -> fgood l -> fgood l1.
Proof.
  induction fuel; intros l l1 H; cbn [alnum_loop] in H; inv H; intros Hg; eauto using next_good.
Qed.

(* turn every equation about a primitive into its facts *)
Ltac nf := first [assumption | apply arith_item_nf | (let X := fresh in intro X; vm_compute in X; discriminate X)].
Ltac use_nf H := try (lapply H; [clear H; intro H | solve [nf]]).
Ltac prim1 :=
  match goal with
  | E : next _ _ _ = Ok _ |- _ => pose proof (next_good _ _ _ E); revert E
  | E : peek _ _ _ = Ok _ |- _ => pose proof (peek_ok _ _ _ E) as (? & ? & ? & ? & _); revert E
  | E : emit _ _ _ _ _ = Ok _ |- _ => let H := fresh "Hg" in pose proof (emit_ok _ _ _ E) as (? & H); use_nf H; revert E
  | E : errorf _ _ _ = Ok _ |- _ => let H := fresh "Hg" in pose proof (errorf_ok _ _ _ _ E) as (? & H); revert E
  | E : emit_to _ _ _ _ _ _ = Ok _ |- _ => let H := fresh "Hg" in pose proof (emit_to_ok _ _ _ _ _ E) as (? & ? & H); use_nf H; revert E
  | E : accept _ _ _ _ = Ok _ |- _ => pose proof (accept_ok _ _ _ _ E) as (? & ?); revert E
  | E : skip_space _ _ _ = Ok _ |- _ => pose proof (skip_space_ok _ _ E) as (? & ?); revert E
  | E : alnum_loop _ _ _ _ _ _ = Ok _ |- _ => pose proof (alnum_loop_ok _ _ _ E); revert E
  end.
Ltac gnorm := unfold fgood in *; cbn [l_out l_start l_pos backup set_pos set_start set_dd ignore tick fst snd] in *.
Ltac prims := repeat prim1; intros; subst; gnorm.
(* fin closes a goal [fgood l'] after an inversion: the facts of the primitives ([prims]: every equation about a
   primitive contributes its _ok fact, the states are normalised by gnorm), then auto.  [sfin] below does the same for the three conjuncts of
   sinv, [ofin] for fgood /\ outF. *)
Ltac fin := prims; auto 20.

Lemma maybe_emit_text_ok l bk l1 : maybe_emit_text inp ilen base l bk = Ok l1 -> fgood l -> fgood l1.
Proof. unfold maybe_emit_text. intros H Hg. inv H; fin. Qed.

Ltac prim2 :=
  match goal with
  | E : maybe_emit_text _ _ _ _ _ = Ok _ |- _ => pose proof (maybe_emit_text_ok _ _ _ E); revert E
  end.
Ltac prims ::= repeat (first [prim1 | prim2]); intros; subst; gnorm.

Lemma double_close_ok l c : double_close inp ilen base l = Ok c ->
  match c with inl (st, l1) => st = LDone /\ (fgood l -> fgood l1) | inr l1 => fgood l -> fgood l1 end.
Proof. unfold double_close. intros H. inv H; fin. Qed.

Ltac prim3 :=
  match goal with
  | E : double_close _ _ _ _ = Ok (inl (_, _)) |- _ => pose proof (double_close_ok _ _ E) as (? & ?); revert E
  | E : double_close _ _ _ _ = Ok (inr _) |- _ => let H := fresh "Hg" in pose proof (double_close_ok _ _ E) as H; cbn beta iota in H; revert E
  end.
Ltac prims ::= repeat (first [prim1 | prim2 | prim3]); intros; subst; gnorm.
Ltac sfin :=
  unfold sinv, in_F; prims;
  (split; [auto 20 | split; [(let X := fresh "X" in intros [X|[X|X]]; try discriminate X; try solve [auto | congruence | lia])
                            | (let X := fresh "X" in intros X; try discriminate X)]]).

Ltac ifs := repeat match goal with H : context [if ?c then _ else _] |- _ => destruct c eqn:? | |- context [if ?c then _ else _] => destruct c eqn:? end.

Lemma lex_left_delim_sinv l st' l' : lex_left_delim inp ilen base l = Ok (st', l') -> sinv inp LLeftDelim l -> sinv inp st' l'.
Proof. unfold lex_left_delim. intros H (Hg & _). inv H. ifs; sfin. Qed.

Lemma lex_right_delim_sinv l st' l' : lex_right_delim inp ilen base l = Ok (st', l') -> sinv inp LRightDelim l -> sinv inp st' l'.
Proof. unfold lex_right_delim. intros H (Hg & _). inv H; sfin. Qed.

Lemma lex_right_delim_end_sinv l st' l' : lex_right_delim_end inp ilen base l = Ok (st', l') -> sinv inp LRightDelimEnd l -> sinv inp st' l'.
Proof. unfold lex_right_delim_end. intros H (Hg & _). inv H; sfin. Qed.

Lemma lex_begin_tag_sinv l st' l' : lex_begin_tag inp ilen l = Ok (st', l') -> sinv inp LBeginTag l -> sinv inp st' l'.
Proof. unfold lex_begin_tag. intros H (Hg & Hs & _). specialize (Hs (or_intror (or_introl eq_refl))). inv H; sfin. Qed.

Lemma line_comment_loop_fok fuel : forall l st' l', line_comment_loop inp ilen base fuel l = Ok (st', l') -> fgood l ->
  fgood l' /\ (st' = LText \/ st' = LDone).
Proof. induction fuel; intros l st' l' H Hg; cbn [line_comment_loop] in H; inv H; [fin|]. eapply IHfuel; [eassumption|fin]. Qed.

Lemma lex_line_comment_sinv l st' l' : lex_line_comment inp ilen base l = Ok (st', l') -> sinv inp LLineComment l -> sinv inp st' l'.
Proof. unfold lex_line_comment. intros H (Hg & _). destruct (line_comment_loop_fok _ _ _ _ H Hg) as (G & [-> | ->]); sfin. Qed.

Lemma block_comment_loop_fok fuel : forall star l st' l', block_comment_loop inp ilen base fuel star l = Ok (st', l') -> fgood l ->
  fgood l' /\ (st' = LText \/ st' = LDone).
Proof.
  induction fuel; intros star l st' l' H Hg; cbn [block_comment_loop] in H; inv H; try solve [fin]; (eapply IHfuel; [eassumption|fin]).
Qed.

Lemma lex_block_comment_sinv l st' l' : lex_block_comment inp ilen base l = Ok (st', l') -> sinv inp LBlockComment l -> sinv inp st' l'.
Proof. unfold lex_block_comment. intros H (Hg & _). destruct (block_comment_loop_fok _ _ _ _ _ H Hg) as (G & [-> | ->]); sfin. Qed.

Lemma string_loop_fok fuel : forall q l st' l', string_loop inp ilen base fuel q l = Ok (st', l') -> fgood l ->
  fgood l' /\ ((st' = LInsideTag /\ l_start l' = l_pos l') \/ st' = LDone).
Proof.
  induction fuel; intros q l st' l' H Hg; cbn [string_loop] in H; inv H; try solve [fin]; (eapply IHfuel; [eassumption|fin]).
Qed.

Lemma lex_string_sinv q l st' l' : lex_string inp ilen base q l = Ok (st', l') -> sinv inp (LString q) l -> sinv inp st' l'.
Proof. unfold lex_string. intros H (Hg & _). destruct (string_loop_fok _ _ _ _ _ H Hg) as (G & [(-> & ?) | ->]); sfin. Qed.

Lemma css_loop_fok fuel : forall l c, css_loop inp ilen base fuel l = Ok c -> fgood l ->
  match c with inl (st, l1) => st = LDone /\ fgood l1 | inr l1 => fgood l1 end.
Proof.
  induction fuel; intros l c H Hg; cbn [css_loop] in H; inv H; try solve [fin]; (eapply IHfuel; [eassumption|fin]).
Qed.

Lemma lex_css_sinv l st' l' : lex_css inp ilen base l = Ok (st', l') -> sinv inp LCss l -> sinv inp st' l'.
Proof.
  unfold lex_css. intros H (Hg & _). inv H;
  (match goal with E : css_loop _ _ _ _ _ = Ok _ |- _ => apply css_loop_fok in E; [cbn beta iota in E|fin] end); [destruct E0 as (-> & ?)|..]; sfin.
Qed.

Lemma literal_space_loop_fok fuel : forall ch l c l1, literal_space_loop inp ilen fuel ch l = Ok (c, l1) -> fgood l -> fgood l1.
Proof.
  induction fuel; intros ch l c l1 H Hg; cbn [literal_space_loop] in H; inv H; try solve [fin]; (eapply IHfuel; [eassumption|fin]).
Qed.

Lemma lex_literal_sinv l st' l' : lex_literal inp ilen base l = Ok (st', l') -> sinv inp LLiteral l -> sinv inp st' l'.
Proof.
  unfold lex_literal. intros H (Hg & _). inv H;
  (match goal with E : literal_space_loop _ _ _ _ _ = Ok _ |- _ => apply literal_space_loop_fok in E; [|fin] end); sfin.
Qed.

Lemma header_type_loop_fok fuel : forall lns l c, header_type_loop inp ilen base fuel lns l = Ok c -> fgood l ->
  match c with inl (st, l1) => st = LDone /\ fgood l1 | inr (_, l1) => fgood l1 end.
Proof.
  induction fuel; intros lns l c H Hg; cbn [header_type_loop] in H; inv H; try solve [fin]; (eapply IHfuel; [eassumption|fin]).
Qed.

Lemma lex_header_param_sinv l st' l' : lex_header_param uni_letter uni_digit inp ilen base l = Ok (st', l') -> sinv inp LHeaderParam l -> sinv inp st' l'.
Proof.
  unfold lex_header_param. intros H (Hg & _). inv H;
  try (match goal with E : header_type_loop _ _ _ _ _ _ = Ok _ |- _ => apply header_type_loop_fok in E; [cbn beta iota in E|ifs; fin] end);
  try (match goal with E : _ = LDone /\ _ |- _ => destruct E as (-> & ?) end); ifs; sfin.
Qed.

Lemma lex_ident_sinv l st' l' : lex_ident uni_letter uni_digit inp ilen base l = Ok (st', l') -> sinv inp LIdent l -> sinv inp st' l'.
Proof.
  unfold lex_ident. intros H (Hg & _). inv H;
  try (match goal with E : assoc_s _ builtin_idents = Some _ |- _ => apply builtin_idents_nf in E end);
  ifs; sfin.
Qed.

Lemma lex_negative_sinv l0 l st' l' : next inp ilen l0 = Ok (45, l) -> l_start l0 = l_pos l0 -> fgood l ->
  lex_negative inp ilen base l = Ok (st', l') -> sinv inp st' l'.
Proof.
  intros N0 Hs Hg H. unfold lex_negative in H. inv H; try solve [sfin].
  (* the exit to lexNumber *)
  destruct (peek_ok _ _ _ E) as (G1 & S1 & P1 & _ & (m1 & N1 & _)).
  destruct (peek_ok _ _ _ E1) as (G2 & S2 & P2 & _ & (m2 & N2 & W2)).
  assert (a = a1) by (eapply next_rune_det; [|exact N1|exact N2]; lia). subst a1.
  destruct (next_ascii_inv _ _ _ _ N2 ltac:(lia)) as (_ & _ & _ & _ & _ & _ & _ & W).
  destruct (next_ascii_inv _ _ _ _ N0 ltac:(lia)) as (_ & _ & _ & _ & _ & _ & P0 & _).
  pose proof (next_frame _ _ _ _ N0) as (_ & S0 & _).
  assert (Hp : l_pos (backup l2) = l_pos l0) by (cbn [backup set_pos l_pos]; lia).
  unfold sinv. split; [unfold fgood in *; cbn [backup set_pos l_out]; auto|]. split.
  - intros _. cbn [backup set_pos l_start l_pos]. lia.
  - intros _ r lr Hr. assert (r = 45) by (eapply next_rune_det; [exact Hp|exact Hr|exact N0]). lia.
Qed.

Lemma lex_inside_tag_sinv l st' l' : lex_inside_tag inp ilen base l = Ok (st', l') -> sinv inp LInsideTag l -> sinv inp st' l'.
Proof.
  unfold lex_inside_tag. intros H (Hg & Hs & _). specialize (Hs (or_introl eq_refl)). inv H;
  try (match goal with E : assoc_s _ arith_items = Some _ |- _ => apply arith_items_nf in E end);
  try solve [sfin].
  all: try (exfalso; lia).
  - (* "-" *) assert (a = 45) by lia. subst a. eapply lex_negative_sinv; [exact E|exact Hs| |exact H]. eapply next_good; eauto.
  - (* a digit *)
    pose proof (next_frame _ _ _ _ E) as (O1 & S1 & _ & _ & P1).
    assert (Hp : l_pos (backup l1) = l_pos l) by (cbn [backup set_pos l_pos]; lia).
    unfold sinv. split; [unfold fgood in *; cbn [backup set_pos l_out]; rewrite O1; auto|]. split.
    + intros _. cbn [backup set_pos l_start l_pos]. lia.
    + intros _ r lr Hr. assert (r = a) by (eapply next_rune_det; [exact Hp|exact Hr|exact E]). lia.
Qed.

Definition outF (st : lstate) : Prop := st <> LInsideTag /\ st <> LBeginTag /\ st <> LNumber.
Lemma outF_sinv st l : fgood l -> outF st -> sinv inp st l.
Proof. intros Hg (H1 & H2 & H3). unfold sinv, in_F. split; [exact Hg|]. split; [intros [X|[X|X]]; contradiction|intros X; contradiction]. Qed.
Ltac ofin := prims; unfold outF; (split; [auto 20 | repeat split; discriminate]).

Lemma lex_text_loop_fok fuel : forall r0 l st' l', lex_text_loop inp ilen base fuel r0 l = Ok (st', l') -> fgood l -> fgood l' /\ outF st'.
Proof.
  induction fuel; intros r0 l st' l' H Hg; cbn [lex_text_loop] in H; inv H; ifs; try solve [ofin];
  try (eapply IHfuel; [eassumption|fin]).
Qed.

Lemma lex_text_sinv l st' l' : lex_text inp ilen base l = Ok (st', l') -> sinv inp LText l -> sinv inp st' l'.
Proof. unfold lex_text. intros H (Hg & _). destruct (lex_text_loop_fok _ _ _ _ _ H Hg). apply outF_sinv; assumption. Qed.

Lemma soydoc_ident_loop_fok fuel : forall l l1, soydoc_ident_loop inp ilen base fuel l = Ok l1 -> fgood l -> fgood l1.
Proof.
  induction fuel; intros l l1 H Hg; cbn [soydoc_ident_loop] in H; inv H; ifs; try solve [fin]; (eapply IHfuel; [eassumption|fin]).
Qed.

Lemma soydoc_space_loop_fok fuel : forall l l1, soydoc_space_loop inp ilen fuel l = Ok l1 -> fgood l -> fgood l1.
Proof.
  induction fuel; intros l l1 H Hg; cbn [soydoc_space_loop] in H; inv H; try solve [fin]; (eapply IHfuel; [eassumption|fin]).
Qed.

Lemma lex_soydoc_param_fok l l1 : lex_soydoc_param inp ilen base l = Ok l1 -> fgood l -> fgood l1.
Proof.
  unfold lex_soydoc_param. intros H Hg. inv H; try solve [fin];
  (eapply soydoc_ident_loop_fok; [eassumption|]);
  (match goal with E : soydoc_space_loop _ _ _ _ = Ok _ |- _ => apply soydoc_space_loop_fok in E; [|fin] end); fin.
Qed.

Lemma soydoc_loop_fok fuel : forall star sol l st' l', soydoc_loop inp ilen base fuel star sol l = Ok (st', l') -> fgood l -> fgood l' /\ outF st'.
Proof.
  induction fuel; intros star sol l st' l' H Hg; cbn [soydoc_loop] in H; inv H; try solve [ofin];
  try (match goal with E : lex_soydoc_param _ _ _ _ = Ok _ |- _ => apply lex_soydoc_param_fok in E; [|fin] end);
  (eapply IHfuel; [eassumption|fin]).
Qed.

Lemma lex_soydoc_sinv l st' l' : lex_soydoc inp ilen base l = Ok (st', l') -> sinv inp LSoyDoc l -> sinv inp st' l'.
Proof.
  unfold lex_soydoc. intros H (Hg & _). inv H. destruct (soydoc_loop_fok _ _ _ _ _ _ H) as (G & O); [fin|]. apply outF_sinv; assumption.
Qed.

(* lexNumber is the one state function that sends float items: what it has to keep is a hypothesis here,
   proved in Proofs/ScanFloatShape.v *)
Section HypNumber.
Hypothesis lex_number_ok : forall l st' l',
  lex_number uni_letter uni_digit inp ilen base l = Ok (st', l') -> l_start l = l_pos l -> numhead inp l -> fgood l ->
  fgood l' /\ (st' = LInsideTag \/ st' = LDone) /\ (st' = LInsideTag -> l_start l' = l_pos l').

Theorem step_sinv_num st l st' l' : step st l = Ok (st', l') -> sinv inp st l -> sinv inp st' l'.
Proof.
  destruct st; cbn [Lexer.step]; intros H Hi.
  - eapply lex_text_sinv; eauto.
  - eapply lex_left_delim_sinv; eauto.
  - eapply lex_right_delim_sinv; eauto.
  - eapply lex_right_delim_end_sinv; eauto.
  - eapply lex_begin_tag_sinv; eauto.
  - eapply lex_inside_tag_sinv; eauto.
  - eapply lex_soydoc_sinv; eauto.
  - eapply lex_line_comment_sinv; eauto.
  - eapply lex_block_comment_sinv; eauto.
  - eapply lex_string_sinv; eauto.
  - eapply lex_ident_sinv; eauto.
  - eapply lex_header_param_sinv; eauto.
  - eapply lex_css_sinv; eauto.
  - eapply lex_literal_sinv; eauto.
  - destruct Hi as (Hg & Hs & Hn).
    destruct (lex_number_ok _ _ _ H (Hs (or_intror (or_intror eq_refl))) (Hn eq_refl) Hg) as (G & [-> | ->] & S).
    + unfold sinv, in_F. split; [exact G|]. split; [intros _; auto|intros X; discriminate X].
    + apply outF_sinv; [exact G|]. repeat split; discriminate.
  - injection H as <- <-. exact Hi.
Qed.

Theorem run_sinv_num fuel st l l' : run uni_letter uni_digit inp ilen base fuel st l = Ok l' -> sinv inp st l -> fgood l'.
Proof.
  intros H Hi. exact (proj1 (run_invariant _ _ _ _ _ (sinv inp) (fun st l st' l' _ => step_sinv_num st l st' l') fuel st l l' H Hi)).
Qed.
End HypNumber.

End Run.

Lemma sinv_init inp mode : sinv inp (entry_state mode) lex_init.
Proof.
  unfold sinv, fgood, in_F. cbn [lex_init l_out l_start l_pos]. split; [constructor|]. split; [reflexivity|].
  destruct mode; discriminate.
Qed.
