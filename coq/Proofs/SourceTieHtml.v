(* Source tie, family 73-gotrans-soyhtml (soyhtml/exec.go, funcs.go, renderer.go, and the
   AutoescapeType constants of ast/node.go): the small decisions the renderer models
   (Model/Print.v, Model/Escape.v, Model/Interp.v) make, against the same functions and
   fragments as gotrans translates them from the source of the tree under check. *)
From Coq Require Import ZArith NArith Bool Lia ZifyBool List.
From Soy Require Import Model.Bytes Model.Num Model.Outcome Model.Values Generated.Tables Model.Escape Model.Directives
  Model.Print Model.Ast Model.Interp Proofs.SourceTieBase Proofs.SourceTieValue.
Import ListNotations.
Open Scope N_scope.

(* exec.go checkNumArgs (Model/Print.v; Model/Interp.v uses the same definition) *)
Lemma check_num_args_matches_source (allowed : list N) (n : nat) :
  check_num_args allowed n = src_soyhtml_checkNumArgs (map Z.of_N allowed) (Z.of_nat n).
Proof.
  unfold check_num_args, src_soyhtml_checkNumArgs, mem. rewrite find_existsb, existsb_map.
  apply st_existsb_ext. intros a. lia.
Qed.

(* exec.go isInt / isString *)
Lemma is_int_matches_source (v : value) : is_int v = src_soyhtml_isInt value st_vkind v.
Proof. destruct v; reflexivity. Qed.

Lemma is_str_matches_source (v : value) : is_str v = src_soyhtml_isString value st_vkind v.
Proof. destruct v; reflexivity. Qed.

(* funcs.go funcIsNonnull, funcHasData, funcLength as Model/Interp.v's apply_func applies them
   (the arity has been checked before: exactly the listed number of arguments) *)
Theorem func_isNonnull_matches_source (v : value) :
  apply_func n_isNonnull [v] =
  match src_soyhtml_funcIsNonnull value st_vkind VBool [v] with Some x => Ok (FVal x) | None => Err e_type end.
Proof.
  unfold src_soyhtml_funcIsNonnull. rewrite go_index_0. cbn [go_bind].
  destruct v; reflexivity.
Qed.

Theorem func_hasData_matches_source (args : list value) :
  apply_func n_hasData args = Ok (FVal (src_soyhtml_funcHasData value VBool args)).
Proof. reflexivity. Qed.

Theorem func_length_matches_source (v : value) :
  apply_func n_length [v] =
  match src_soyhtml_funcLength value VInt v_as_list [v] with Some x => Ok (FVal x) | None => Err e_type end.
Proof.
  unfold src_soyhtml_funcLength. rewrite go_index_0. cbn [go_bind].
  destruct v; reflexivity.
Qed.

(* ast/node.go: the AutoescapeType codes that Model/Escape.v, Model/Parser.v and the table
   autoescape_attr_table are written with (0 unspecified, 1 on, 2 off, 3 contextual) *)
Lemma autoescape_codes_match_source :
  (src_ast_AutoescapeUnspecified, src_ast_AutoescapeOn, src_ast_AutoescapeOff, src_ast_AutoescapeContextual) = (0, 1, 2, 3)%Z.
Proof. reflexivity. Qed.

(* exec.go evalPrint: `var escapeHtml = s.autoescape != ast.AutoescapeOff` (before any directive) *)
Lemma escape_decision_init_matches_source (mode : N) :
  escape_decision mode [] = src_soyhtml_state_evalPrint_escapeHtml (Z.of_N mode).
Proof. unfold escape_decision, src_soyhtml_state_evalPrint_escapeHtml. cbn [forallb]. lia. Qed.

(* renderer.go Execute: the namespace's mode, unspecified -> on *)
Lemma entry_mode_matches_source (ns : N) :
  Z.of_N (entry_mode ns) = src_soyhtml_Renderer_Execute_autoescapeMode (Z.of_N ns).
Proof.
  unfold entry_mode, src_soyhtml_Renderer_Execute_autoescapeMode. cbv zeta.
  destruct (ns =? 0) eqn:E; st_decide_ifs; lia.
Qed.
