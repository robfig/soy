(* A relational, node-indexed induction principle for one unfolding of the tree
   walker (Model/Interp.v [walk_body]).

   [Phi m m'] relates two computations; the theorem [rel_walk_body] says: if
   [Phi] is closed under the monad's structure ([rel_logic]), relates every
   walker-independent computation that leaves call depth and position alone to
   itself, and relates the two recursive walkers [w], [w'] on every node
   satisfying [Q] (a predicate on nodes that is inherited by sub-nodes), then
   it relates [walk_body cf w n] and [walk_body cf w' n] for every [Q]-node n
   (an instance of the one-unfolding principle of Proofs/InterpSub.v: a
   [rel_logic] is a [body_logic], and [Q] passes to [subnodes n]).

   Instances (Proofs/ErrPosProofs.v): the diagonal one (w' = w; containment of
   the reported position in the positions of the node being walked), and the
   pair (walk, walk with failures of entry-template sub-walks masked), which
   splits a failing run into "a sub-walk failed" / "this node's own code failed". *)
From Soy Require Import Model.Bytes Model.Num Model.Values Model.Outcome Model.Ast
  Model.Escape Model.Directives Model.Print Generated.Tables Model.Interp Spec.ErrPos Proofs.InterpLogic Proofs.InterpSub.
Require Import Lia.
Open Scope N_scope.

(* computations that leave the call depth and the position register alone *)
Definition neutral {A} (m : M A) : Prop :=
  forall st r st', m st = (r, st') -> depth_ st' = depth_ st /\ cur st' = cur st.

Lemma neutral_ret {A} (x : A) : neutral (ret x).
Proof. intros st r st' H. inversion H. split; reflexivity. Qed.
Lemma neutral_fail {A} e : neutral (@fail A e).
Proof. intros st r st' H. inversion H. split; reflexivity. Qed.
Lemma neutral_lift {A} (o : outcome A) : neutral (lift o).
Proof. intros st r st' H. inversion H. split; reflexivity. Qed.
Lemma neutral_get : neutral get.
Proof. intros st r st' H. inversion H. split; reflexivity. Qed.
Lemma neutral_modify f : (forall st, depth_ (f st) = depth_ st /\ cur (f st) = cur st) -> neutral (modify f).
Proof. intros Hf st r st' H. inversion H. apply Hf. Qed.
Lemma neutral_bind {A B} (m : M A) (f : A -> M B) : neutral m -> (forall x, neutral (f x)) -> neutral (mbind m f).
Proof.
  intros Hm Hf st r st2 Hb.
  destruct (mbind_inv _ _ _ _ _ Hb) as [(x & st1 & H1 & H2) | (e & H1 & ->)].
  - destruct (Hm _ _ _ H1) as [Hd Hc]. destruct (Hf x _ _ _ H2) as [Hd2 Hc2]. split; congruence.
  - eapply Hm; eauto.
Qed.
Lemma neutral_write w : neutral (write w).
Proof. intros st r st' H. apply write_inv in H. inversion H; subst; split; reflexivity. Qed.
Lemma neutral_write_all ws : neutral (write_all ws).
Proof.
  induction ws as [|x l IH]; cbn [write_all]; [apply neutral_ret|].
  apply neutral_bind; [apply neutral_write | intros _; exact IH].
Qed.
Lemma neutral_m_set k v : neutral (m_set k v).
Proof.
  intros st r st' H. rewrite m_set_eq in H. destruct (ctx st) as [|f l]; inversion H; subst; [split; reflexivity|].
  destruct (f_origin f); split; reflexivity.
Qed.
Lemma neutral_m_lookup k : neutral (m_lookup k).
Proof. intros st r st' H. rewrite m_lookup_eq in H. destruct (sc_lookup _ _); inversion H; subst; split; reflexivity. Qed.
Lemma neutral_m_push : neutral m_push.
Proof. apply neutral_modify. intros; split; reflexivity. Qed.
Lemma neutral_m_pop : neutral m_pop.
Proof. apply neutral_modify. intros; split; reflexivity. Qed.
Lemma neutral_fresh_list l : neutral (fresh_list l).
Proof. intros st r st' H. rewrite fresh_list_eq in H. destruct l; inversion H; subst; split; reflexivity. Qed.
Lemma neutral_fresh_list_or_nil l : neutral (fresh_list_or_nil l).
Proof. intros st r st' H. rewrite fresh_list_or_nil_eq in H. destruct l; inversion H; subst; split; reflexivity. Qed.
Lemma neutral_fresh_map m : neutral (fresh_map m).
Proof. intros st r st' H. inversion H; subst; split; reflexivity. Qed.

#[global] Hint Resolve neutral_ret neutral_fail neutral_lift neutral_get neutral_write neutral_write_all neutral_m_set
  neutral_m_lookup neutral_m_push neutral_m_pop neutral_fresh_list neutral_fresh_list_or_nil neutral_fresh_map : neutral.

Lemma neutral_loop_func name args : neutral (loop_func name args).
Proof.
  unfold loop_func. destruct args as [|a l]; [auto with neutral|].
  destruct a; auto with neutral.
  apply neutral_bind; [auto with neutral|]. intros ix.
  destruct (fn_is name n_index); [auto with neutral|].
  destruct ix; auto with neutral.
  destruct (fn_is name n_isFirst); [auto with neutral|].
  apply neutral_bind; [auto with neutral|]. intros li. destruct li; auto with neutral.
Qed.
#[global] Hint Resolve neutral_loop_func : neutral.

(* ------------------------------------------------------------------ *)
Section Rel.
Variable cf : cfg.
Variable Phi : forall A : Type, M A -> M A -> Prop.
Arguments Phi {A} _ _.
Variable Q : node -> Prop.

Record rel_logic : Prop := {
  rl_same : forall A (m : M A), neutral m -> Phi m m;
  rl_bind : forall A B (m m' : M A) (f f' : A -> M B),
      Phi m m' -> (forall x, Phi (f x) (f' x)) -> Phi (mbind m f) (mbind m' f');
  rl_get : forall B (f f' : mstate -> M B), (forall s, Phi (f s) (f' s)) -> Phi (mbind get f) (mbind get f');
  rl_set_cur : forall n, Q n ->
      Phi (modify (fun st => set_cur st (pos_of n))) (modify (fun st => set_cur st (pos_of n)));
  rl_eval : forall (w w' : node -> M value) e, Phi (w e) (w' e) -> Phi (eval w e) (eval w' e);
}.

Hypothesis L : rel_logic.
(* Q is inherited by sub-nodes and by the message nodes synthesised for a plural case *)
Hypothesis Qch : forall n, Q n -> Forall Q (children n).
Hypothesis Qsynth : forall mp id me de body l, Q (NMsg mp id me de body) -> Forall Q l -> Q (NMsg mp 0 [] [] l).

Ltac r_bind := apply (rl_bind L); [ | intro ].
Ltac neu := solve [ auto with neutral | apply neutral_modify; intros; split; reflexivity | apply neutral_bind; [ neu | intro; neu ] ].
Ltac r_same := apply (rl_same L); neu.

(* a [rel_logic] is a logic for one unfolding of the walker (Proofs/InterpSub.v): the primitives and the scope
   brackets are neutral or binds of neutral steps *)
Lemma rel_logic_body : body_logic (@Phi) (fun _ _ => True).
Proof.
  constructor; intros; try r_same.
  - apply (rl_bind L); assumption.
  - apply (rl_get L). intros s. apply H.
  - apply (rl_get L). intros s. apply H.
  - r_bind; [r_same|]. r_bind; [assumption|]. r_same.
  - r_bind; [r_same|]. r_bind; [assumption|]. r_bind; [assumption|]. r_same.
  - apply (rl_eval L). assumption.
  - unfold render_block. r_bind; [r_same|]. r_bind; [assumption|].
    apply (rl_get L). intros s. destruct (bufs s) as [|buf rest]; r_same.
Qed.

Lemma trivial_sites_sub : pure_sites_sub (fun _ _ => True).
Proof. constructor; intros; exact I. Qed.

(* [Q] passes to the nodes one unfolding hands to [w]: they are children, or children of children *)
Lemma Q_flat_map (f : node -> list node) l : (forall a, Q a -> Forall Q (f a)) -> Forall Q l -> Forall Q (flat_map f l).
Proof. intros Hf H. apply Forall_flat_map. eapply Forall_impl; [exact Hf | exact H]. Qed.

Lemma Q_acc_subs a : Q a -> Forall Q (acc_subs a).
Proof. intros H. destruct a; cbn [acc_subs]; try apply Forall_nil. exact (Qch _ H). Qed.
Lemma Q_dir_subs d : Q d -> Forall Q (dir_subs d).
Proof. intros H. destruct d; cbn [dir_subs]; try apply Forall_nil. exact (Qch _ H). Qed.
Lemma Q_cond_subs c : Q c -> Forall Q (cond_subs c).
Proof. intros H. destruct c; cbn [cond_subs]; try apply Forall_nil. exact (Qch _ H). Qed.
Lemma Q_case_subs c : Q c -> Forall Q (case_subs c).
Proof. intros H. destruct c; cbn [case_subs]; try apply Forall_nil. exact (Qch _ H). Qed.
Lemma Q_param_subs p : Q p -> Forall Q (param_subs p).
Proof. intros H. destruct p; cbn [param_subs]; try apply Forall_nil; exact (Qch _ H). Qed.
Lemma Q_plural_case_subs mp id me de body c : Q (NMsg mp id me de body) -> Q c -> Forall Q (plural_case_subs mp c).
Proof.
  intros Hm H. destruct c; cbn [plural_case_subs]; try apply Forall_nil.
  apply Forall_cons; [|apply Forall_nil]. eapply Qsynth; [exact Hm | exact (Qch _ H)].
Qed.
Lemma Q_msg_subs mp id me de body x : Q (NMsg mp id me de body) -> Q x -> Forall Q (msg_subs mp x).
Proof.
  intros Hm H. destruct x; cbn [msg_subs]; try apply Forall_nil.
  - apply Forall_cons; [exact H | apply Forall_nil].
  - exact (Qch _ H).
  - pose proof (Qch _ H) as Hc. cbn [children] in Hc. apply Forall_cons_iff in Hc as [Hv Hc]. apply Forall_app in Hc as [Hcs Hd].
    apply Forall_cons; [exact Hv|]. apply Forall_cons; [eapply Qsynth; [exact Hm | exact Hd]|].
    apply Q_flat_map; [intros c; apply (Q_plural_case_subs _ _ _ _ _ _ Hm) | exact Hcs].
Qed.

Lemma Q_subnodes n : Q n -> Forall Q (subnodes n).
Proof.
  intros H. pose proof (Qch _ H) as Hc.
  destruct n; cbn [subnodes]; try apply Forall_nil; cbn [children] in Hc; try exact Hc.
  - (* NDataRef *) apply Q_flat_map; [apply Q_acc_subs | exact Hc].
  - (* NPrint *) apply Forall_cons_iff in Hc as [Ha Hd]. apply Forall_cons; [exact Ha|]. apply Q_flat_map; [apply Q_dir_subs | exact Hd].
  - (* NIf *) apply Q_flat_map; [apply Q_cond_subs | exact Hc].
  - (* NSwitch *) apply Forall_cons_iff in Hc as [Hv Hcs]. apply Forall_cons; [exact Hv|]. apply Q_flat_map; [apply Q_case_subs | exact Hcs].
  - (* NCall *) apply Forall_app in Hc as [Hd Hp]. apply Forall_app. split; [exact Hd|]. apply Q_flat_map; [apply Q_param_subs | exact Hp].
  - (* NMsg *) apply Q_flat_map; [intros x; apply (Q_msg_subs _ _ _ _ _ _ H) | exact Hc].
Qed.

Section Body.
Variables w w' : node -> M value.
Hypothesis Hw : forall c, Q c -> Phi (w c) (w' c).
Hypothesis Hcall : forall callee cd, Phi (call_enter w callee cd) (call_enter w' callee cd).

Lemma rel_call_params ps : Forall Q ps -> forall cd, Phi (call_params w ps cd) (call_params w' ps cd).
Proof using L Qch Hw.
  intros H. apply (bphi_call_params _ _ rel_logic_body).
  eapply Forall_impl; [|exact H]. intros p Hp. eapply Forall_impl; [exact Hw | exact (Q_param_subs p Hp)].
Qed.

Lemma rel_call_data alldata dat : Forall Q (opt_list dat) -> Phi (call_data w alldata dat) (call_data w' alldata dat).
Proof using L Hw. intros H. apply (bphi_call_data _ _ rel_logic_body). eapply Forall_impl; [exact Hw | exact H]. Qed.

Lemma rel_walk_node n : Q n -> Phi (walk_node cf w n) (walk_node cf w' n).
Proof.
  intros Hq. apply (bphi_walk_node cf _ _ rel_logic_body trivial_sites_sub).
  - apply (rl_set_cur L _ Hq).
  - intros. r_same.
  - eapply Forall_impl; [exact Hw | exact (Q_subnodes n Hq)].
  - intros callee cd _. apply Hcall.
Qed.

Lemma rel_walk_body n : Q n -> Phi (walk_body cf w n) (walk_body cf w' n).
Proof. intros Hq. unfold walk_body. r_bind; [apply (rl_set_cur L _ Hq) | apply rel_walk_node; exact Hq]. Qed.
End Body.
End Rel.
