(* Position independence of the successful runs of the command-level parser model: the leaf loops
   and the first half of Section Level of Model/Parser.v (directive_args ... parse_call). *)
From Soy Require Import Model.Bytes Model.Num Model.Values Model.Outcome Model.Ast Model.Token Model.RawText Model.ExprParser Model.Parser
  Generated.Tables Spec.ExprSyntax Proofs.ExprParserStrip.
From Soy Require Import Proofs.CmdParserStripDefs.
Require Import Lia List.
Import ListNotations.
Open Scope N_scope.

(* two nodes built by the same constructor from related parts are related: unfold the relations, congruence *)
Ltac cps_node :=
  unfold cps_neq, cps_xeq, cps_leq, cps_xleq in *; cbn [cps_strip strip_pos option_map]; congruence.

Section Leaf.
Variables (inlen inlen' : N) (lexq : bstr -> list tok) (unq : bstr -> option bstr) (efuel : list tok -> nat).
Hypothesis Hefuel : forall ts ts', map strip_tok ts = map strip_tok ts' -> efuel ts = efuel ts'.

Lemma cps_attrs_loop f : forall allowed acc s s', cps_R s s' ->
  cps_ok eq (attrs_loop inlen unq f allowed acc s) (attrs_loop inlen' unq f allowed acc s').
Proof.
  induction f as [|f IH]; intros allowed acc s s' H; cbn [attrs_loop]; [cps_triv|].
  cps_nx tok tok' Ht Hs1.
  destruct (tis tok pit_Ident).
  - destruct (negb (existsb (bstr_eqb (t_val tok)) allowed)); [cps_triv|].
    cps_ex e e' He Hs2.
    cps_ex av av' Hav Hs3.
    destruct (unq (t_val av)); [apply IH; exact Hs3 | cps_triv].
  - destruct (tis tok pit_RightDelim || tis tok pit_RightDelimEnd);
      [apply cps_ok_ret; [reflexivity | apply cps_R_backup; exact Hs1] | cps_triv].
Qed.

Lemma cps_parse_autoescape attrs s s' : cps_R s s' ->
  cps_ok eq (parse_autoescape inlen attrs s) (parse_autoescape inlen' attrs s').
Proof.
  intros H. unfold parse_autoescape. destruct (assoc_s _ autoescape_attr_table); [apply cps_ok_ret; [reflexivity|exact H] | cps_triv].
Qed.

Lemma cps_bool_attr attrs key d s s' : cps_R s s' ->
  cps_ok eq (bool_attr inlen attrs key d s) (bool_attr inlen' attrs key d s').
Proof.
  intros H. unfold bool_attr. destruct (attr key attrs) as [v|]; [|apply cps_ok_ret; [reflexivity|exact H]].
  destruct (bstr_eqb v k_true); [apply cps_ok_ret; [reflexivity|exact H]|].
  destruct (bstr_eqb v k_false); [apply cps_ok_ret; [reflexivity|exact H] | cps_triv].
Qed.

Lemma cps_next_non_comment f : forall s s', cps_R s s' -> cps_ok cps_teq (next_non_comment f s) (next_non_comment f s').
Proof.
  induction f as [|f IH]; intros s s' H; cbn [next_non_comment]; [cps_triv|].
  cps_nx tok tok' Ht Hs1.
  destruct (tis tok pit_Comment); [apply IH; exact Hs1 | apply cps_ok_ret; assumption].
Qed.

Lemma cps_skip_comments f : forall token token' s s', cps_teq token token' -> cps_R s s' ->
  cps_ok cps_teq (skip_comments f token s) (skip_comments f token' s').
Proof.
  induction f as [|f IH]; intros token token' s s' Ht H; cbn [skip_comments]; [cps_triv|].
  cps_tok Ht. destruct (tis token pit_Comment); [|apply cps_ok_ret; assumption].
  cps_nx t1 t1' Ht1 Hs1. apply IH; assumption.
Qed.

Definition cps_tneq (x x' : bstr * tok) : Prop := fst x = fst x' /\ cps_teq (snd x) (snd x').

Lemma cps_text_run f : forall text s s', cps_R s s' -> cps_ok cps_tneq (text_run f text s) (text_run f text s').
Proof.
  induction f as [|f IH]; intros text s s' H; cbn [text_run]; [cps_triv|].
  cps_nx nx nx' Ht Hs1.
  destruct (tis nx pit_Text); [apply IH; exact Hs1|]. apply cps_ok_ret; [|exact Hs1]. split; [reflexivity|exact Ht].
Qed.

Lemma cps_soydoc_loop f : forall pos pos' params params' s s', cps_leq params params' -> cps_R s s' ->
  cps_ok cps_neq (soydoc_loop inlen f pos params s) (soydoc_loop inlen' f pos' params' s').
Proof.
  induction f as [|f IH]; intros pos pos' params params' s s' Hl H; cbn [soydoc_loop]; [cps_triv|].
  cps_nx nx nx' Ht Hs1.
  destruct (tis nx pit_Text); [apply IH; assumption|].
  destruct (tis nx pit_SoyDocOptionalParam || tis nx pit_SoyDocParam).
  { cps_ex id id' Hid Hs2. apply IH; [|exact Hs2]. apply cps_leq_app; [exact Hl|]. cps_node. }
  destruct (tis nx pit_SoyDocEnd); [|cps_triv]. apply cps_ok_ret; [|exact Hs1]. cps_node.
Qed.

Lemma cps_alias_loop f : forall name last s s', cps_R s s' ->
  cps_ok eq (alias_loop inlen f name last s) (alias_loop inlen' f name last s').
Proof.
  induction f as [|f IH]; intros name last s s' H; cbn [alias_loop]; [cps_triv|].
  cps_nx nx nx' Ht Hs1.
  destruct (tis nx pit_DotIdent).
  { cps cps_tail1 as seg seg' <- Hs2. apply IH; exact Hs2. }
  destruct (tis nx pit_RightDelim); [|cps_triv]. apply cps_ok_ret; [reflexivity|]. apply cps_R_add_alias; exact Hs1.
Qed.

Lemma cps_parse_alias f s s' : cps_R s s' -> cps_ok eq (parse_alias inlen f s) (parse_alias inlen' f s').
Proof.
  intros H. unfold parse_alias. cps_ex id id' Hid Hs1. apply cps_alias_loop; exact Hs1.
Qed.

Lemma cps_dotted_name f : forall name s s', cps_R s s' -> cps_ok eq (dotted_name f name s) (dotted_name f name s').
Proof.
  induction f as [|f IH]; intros name s s' H; cbn [dotted_name]; [cps_triv|].
  cps_nx part part' Ht Hs1.
  destruct (tis part pit_DotIdent); [apply IH; exact Hs1|]. apply cps_ok_ret; [reflexivity|]. apply cps_R_backup; exact Hs1.
Qed.

Lemma cps_parse_namespace f token token' s s' : cps_R s s' ->
  cps_ok cps_neq (parse_namespace inlen unq f token s) (parse_namespace inlen' unq f token' s').
Proof.
  intros H. unfold parse_namespace. rewrite <- (cps_R_ns _ _ H). destruct (c_ns s); [|cps_triv].
  cps_ex id id' Hid Hs1.
  cps cps_dotted_name as name name' <- Hs2.
  cps cps_attrs_loop as attrs attrs' <- Hs3.
  cps cps_parse_autoescape as ae ae' <- Hs4.
  cps_ex r r' Hr Hs5.
  apply cps_ok_ret; [cps_node|]. apply cps_R_set_ns; exact Hs5.
Qed.

Section Level.
Variables (pe pe' : N -> cst -> cres node) (w w' : list N -> cst -> cres node) (lf : nat).
Hypothesis Hpe : forall prec s s', cps_R s s' -> cps_ok cps_xeq (pe prec s) (pe' prec s').
Hypothesis Hw : forall until s s', cps_R s s' -> cps_ok cps_neq (w until s) (w' until s').

Lemma cps_directive_args f : forall args args' s s', cps_xleq args args' -> cps_R s s' ->
  cps_ok cps_xleq (directive_args pe f args s) (directive_args pe' f args' s').
Proof.
  induction f as [|f IH]; intros args args' s s' Hl H; cbn [directive_args]; [cps_triv|].
  cps_nx nx nx' Ht Hs1.
  destruct (tis nx pit_Colon || tis nx pit_Comma).
  - cps Hpe as a a' Ha Hs2.
    apply IH; [|exact Hs2]. apply cps_xleq_app; assumption.
  - apply cps_ok_ret; [exact Hl|]. apply cps_R_backup; exact Hs1.
Qed.

Lemma cps_cmd_print_loop f : forall pos pos' e e' dirs dirs' s s', cps_xeq e e' -> cps_xleq dirs dirs' -> cps_R s s' ->
  cps_ok cps_neq (cmd_print_loop inlen pe lf f pos e dirs s) (cmd_print_loop inlen' pe' lf f pos' e' dirs' s').
Proof.
  induction f as [|f IH]; intros pos pos' e e' dirs dirs' s s' He Hl H; cbn [cmd_print_loop]; [cps_triv|].
  cps_nx tok tok' Ht Hs1.
  destruct (tis tok pit_RightDelim); [apply cps_ok_ret; [cps_node|exact Hs1]|].
  destruct (tis tok pit_Pipe); [|cps_triv].
  cps_ex id id' Hid Hs2.
  cps cps_directive_args as args args' Ha Hs3.
  apply IH; [exact He| |exact Hs3]. apply cps_xleq_app; [exact Hl|]. cps_node.
Qed.

Lemma cps_cmd_print token token' s s' : cps_R s s' ->
  cps_ok cps_neq (cmd_print inlen pe lf token s) (cmd_print inlen' pe' lf token' s').
Proof.
  intros H. unfold cmd_print. cps Hpe as e e' He Hs1.
  apply cps_cmd_print_loop; [exact He|apply cps_xleq_nil|exact Hs1].
Qed.

Lemma cps_parse_let token token' s s' : cps_R s s' ->
  cps_ok cps_neq (parse_let inlen unq pe w lf token s) (parse_let inlen' unq pe' w' lf token' s').
Proof.
  intros H. unfold parse_let.
  cps_ex name name' Hname Hs1.
  cps cps_peek as pk pk' Hpk Hs2. cps_tok Hpk.
  destruct (tis pk pit_Colon).
  - cps_nx c c' Hc Hs3.
    cps Hpe as e e' He Hs4.
    cps cps_tail1 as nm nm' <- Hs5.
    cps_ex r r' Hr Hs6. apply cps_ok_ret; [cps_node|exact Hs6].
  - cps cps_attrs_loop as at_ at' _ Hs3.
    cps_nx nx nx' Hnx Hs4.
    destruct (tis nx pit_RightDelim); [|cps_triv].
    cps Hw as body body' Hb Hs5.
    cps cps_tail1 as nm nm' <- Hs6.
    cps_ex r r' Hr Hs7. apply cps_ok_ret; [cps_node|exact Hs7].
Qed.

Lemma cps_parse_css token token' s s' : cps_R s s' ->
  cps_ok cps_neq (parse_css inlen lexq parse_expr efuel token s) (parse_css inlen' lexq parse_expr efuel token' s').
Proof.
  intros H. unfold parse_css.
  cps_ex cmd cmd' Hcmd Hs1.
  cps_ex r r' Hr Hs2.
  destruct (last_index_of 44 (t_val cmd)) as [i|]; [|apply cps_ok_ret; [cps_node|exact Hs2]].
  cps cps_quoted as e e' He Hs3.
  apply cps_ok_ret; [cps_node|exact Hs3].
Qed.

Lemma cps_call_name_loop f : forall name s s', cps_R s s' -> cps_ok eq (call_name_loop f name s) (call_name_loop f name s').
Proof.
  induction f as [|f IH]; intros name s s' H; cbn [call_name_loop]; [cps_triv|].
  cps_nx tk tk' Ht Hs1.
  destruct (tis tk pit_DotIdent); [apply IH; exact Hs1|]. apply cps_ok_ret; [reflexivity|]. apply cps_R_backup; exact Hs1.
Qed.

Lemma cps_call_name s s' : cps_R s s' -> cps_ok eq (call_name lf s) (call_name lf s').
Proof.
  intros H. unfold call_name. cps_nx tok tok' Ht Hs1.
  destruct (tis tok pit_DotIdent); [apply cps_ok_ret; [reflexivity|exact Hs1]|].
  destruct (tis tok pit_Ident); [|apply cps_ok_ret; [reflexivity|apply cps_R_backup; exact Hs1]].
  cps_nx tok2 tok2' Ht2 Hs2.
  destruct (tis tok2 pit_DotIdent); [apply cps_call_name_loop; exact Hs2|].
  apply cps_ok_ret; [reflexivity|]. apply cps_R_backup2; assumption.
Qed.

Lemma cps_orphan_text f : forall initial initial' s s', cps_teq initial initial' -> cps_R s s' ->
  cps_ok cps_teq (orphan_text inlen lf f initial s) (orphan_text inlen' lf f initial' s').
Proof.
  induction f as [|f IH]; intros initial initial' s s' Ht H; cbn [orphan_text]; [cps_triv|].
  cps_tok Ht. destruct (tis initial pit_Text); [|apply cps_ok_ret; assumption].
  destruct (rawtext_run (t_val initial) true true) as [[|x l]| | | | |]; try cps_triv.
  cps cps_next_non_comment as nx nx' Hnx Hs1. apply IH; assumption.
Qed.

Lemma cps_param_attr_form rec rec' params params' initial initial' key0 s s' :
  (forall p p' s s', cps_leq p p' -> cps_R s s' -> cps_ok cps_leq (rec p s) (rec' p' s')) ->
  cps_leq params params' -> cps_R s s' ->
  cps_ok cps_leq (param_attr_form inlen lexq unq parse_expr efuel w lf rec params initial key0 s)
                 (param_attr_form inlen' lexq unq parse_expr efuel w' lf rec' params' initial' key0 s').
Proof.
  intros Hrec Hl H. unfold param_attr_form.
  cps cps_attrs_loop as attrs attrs' <- Hs7.
  eapply cps_ok_bind with (eqa := eq).
  { destruct key0; [|apply cps_ok_ret; [reflexivity|exact Hs7]].
    destruct (attr k_key attrs); [apply cps_ok_ret; [reflexivity|exact Hs7] | cps_triv]. }
  intros key key' s8 s8' <- Hs8.
  destruct (attr k_value attrs) as [vs|].
  - cps cps_quoted as v v' Hv Hs9.
    cps_ex r r' Hr Hs10. apply Hrec; [|exact Hs10]. apply cps_leq_app; [exact Hl|cps_node].
  - cps_ex r r' Hr Hs9.
    cps Hw as v v' Hv Hs10.
    cps_ex r2 r2' Hr2 Hs11. apply Hrec; [|exact Hs11]. apply cps_leq_app; [exact Hl|cps_node].
Qed.

Lemma cps_call_params_loop f : forall params params' s s', cps_leq params params' -> cps_R s s' ->
  cps_ok cps_leq (call_params_loop inlen lexq unq parse_expr efuel pe w lf f params s)
                 (call_params_loop inlen' lexq unq parse_expr efuel pe' w' lf f params' s').
Proof.
  induction f as [|f IH]; intros params params' s s' Hl H; cbn [call_params_loop]; [cps_triv|].
  cps cps_next_non_comment as i0 i0' Hi0 Hs1.
  cps cps_orphan_text as initial initial' Hin Hs2. cps_tok Hin.
  destruct (negb (tis initial pit_LeftDelim)); [cps_triv|].
  cps_nx cmd cmd' Hcmd Hs3.
  destruct (tis cmd pit_CallEnd); [apply cps_ok_ret; [exact Hl|apply cps_R_backup2; assumption]|].
  destruct (negb (tis cmd pit_Param)); [cps_triv|].
  cps_ex first first' Hfirst Hs4.
  cps_nx tok tok' Htok Hs5.
  destruct (tis tok pit_Colon).
  { cps Hpe as v v' Hv Hs6.
    cps_ex r r' Hr Hs7. apply IH; [|exact Hs7]. apply cps_leq_app; [exact Hl|cps_node]. }
  destruct (tis tok pit_RightDelim).
  { cps Hw as v v' Hv Hs6.
    cps_ex r r' Hr Hs7. apply IH; [|exact Hs7]. apply cps_leq_app; [exact Hl|cps_node]. }
  destruct (tis tok pit_Ident).
  { apply cps_param_attr_form; [exact IH|exact Hl|apply cps_R_backup; exact Hs5]. }
  destruct (tis tok pit_Equals); [|cps_triv].
  apply cps_param_attr_form; [exact IH|exact Hl|apply cps_R_backup2; assumption].
Qed.

Definition cps_adeq (x x' : bool * option node) : Prop := fst x = fst x' /\ option_map strip_pos (snd x) = option_map strip_pos (snd x').

Lemma cps_parse_call token token' s s' : cps_R s s' ->
  cps_ok cps_neq (parse_call inlen lexq unq parse_expr efuel pe w lf token s)
                 (parse_call inlen' lexq unq parse_expr efuel pe' w' lf token' s').
Proof.
  intros H. unfold parse_call.
  cps cps_call_name as name0 name0' <- Hs1.
  cps cps_attrs_loop as attrs attrs' <- Hs2. cbv zeta.
  destruct (match name0 with [] => attr_or_empty k_name attrs | _ :: _ => name0 end) as [|c0 nm]; [cps_triv|].
  rewrite <- (cps_R_resolve _ _ (c0 :: nm) Hs2).
  eapply cps_ok_bind with (eqa := cps_adeq).
  { destruct (attr k_data attrs) as [d|]; [|apply cps_ok_ret; [split; reflexivity|exact Hs2]].
    destruct (bstr_eqb d k_all); [apply cps_ok_ret; [split; reflexivity|exact Hs2]|].
    cps cps_quoted as e e' He Hs3.
    apply cps_ok_ret; [|exact Hs3]. split; [reflexivity|]. cbn [snd option_map]. unfold cps_xeq in He. rewrite He. reflexivity. }
  intros ad ad' s3 s3' [Had1 Had2] Hs3.
  cps_nx tok tok' Htok Hs4.
  destruct (tis tok pit_RightDelimEnd).
  { apply cps_ok_ret; [|exact Hs4]. unfold cps_neq. cbn [cps_strip map]. rewrite Had1, Had2. reflexivity. }
  destruct (tis tok pit_RightDelim); [|cps_triv].
  cps cps_call_params_loop as body body' Hb Hs5.
  cps_ex r1 r1' Hr1 Hs6.
  cps_ex r2 r2' Hr2 Hs7.
  cps_ex r3 r3' Hr3 Hs8.
  apply cps_ok_ret; [|exact Hs8]. unfold cps_neq. cbn [cps_strip]. unfold cps_leq in Hb. rewrite Had1, Had2, Hb. reflexivity.
Qed.

End Level.
End Leaf.
