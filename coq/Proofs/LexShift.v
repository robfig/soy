(* lexExprAt(name, s, outer, base) sends the items of lexExpr("", s) with their positions shifted by base.

   Model/Parser.v gives parseQuotedExpr the items of the expression-mode scanner shifted to the place of
   the attribute in the enclosing file (map (shift_tok base) (lexq str)); the Go code starts a scanner
   with l.base = base instead (lexExprAt).  This file shows the two agree, for every input and every
   base >= 0: a forward simulation of the whole scanner model (every state function, every inner loop)
   between the run at base 0 and the run at base b.  The states correspond through [shl q]: all fields
   equal, the items sent shifted by b, and lastEmit equal up to its position field [q], which no state
   function reads.  [sim sh x y] says that y, a computation of the run at base b, returns what x returns
   at base 0, shifted by sh (only the direction from a normal return at base 0 is needed: the scanner
   model returns normally on every input, LexerProofs.lex_items_total).  next, emit and errorf commute
   with the shift; bind, tests and returns preserve [sim]; so every function built from them does, which
   is what the tactic [sim_body] spells out along the body of a function. *)
From Soy Require Import Model.Bytes Model.Utf8 Model.Outcome Model.Token Model.Lexer Generated.Tables.
From Coq Require Import ZifyBool Lia.
Open Scope Z_scope.

Section Shift.
Variable ul ud : Z -> bool.
Variable inp : bstr.
Variable ilen : Z.
Variable b : Z.
Hypothesis Hb : 0 <= b.

Definition sh (t : tok) : tok := {| t_typ := t_typ t; t_pos := (Z.to_N b + t_pos t)%N; t_val := t_val t |}.
Definition setq (q : N) (t : tok) : tok := {| t_typ := t_typ t; t_pos := q; t_val := t_val t |}.
(* the state of the run at base b that corresponds to [l] of the run at base 0; [q]: the position field of
   lastEmit (never read) *)
Definition shl (q : N) (l : lx) : lx :=
  {| l_pos := l_pos l; l_start := l_start l; l_width := l_width l; l_dd := l_dd l; l_last := setq q (l_last l);
     l_out := map sh (l_out l); l_ticks := l_ticks l |}.
Definition sh2 {X} (q : N) (p : X * lx) : X * lx := (fst p, shl q (snd p)).

Definition shsum {X Y} (q : N) (s : X * lx + Y * lx) : X * lx + Y * lx :=
  match s with inl p => inl (sh2 q p) | inr p => inr (sh2 q p) end.
Definition shsl {X} (q : N) (s : X * lx + lx) : X * lx + lx :=
  match s with inl p => inl (sh2 q p) | inr l => inr (shl q l) end.
Definition shll (q : N) (s : lx + lx) : lx + lx :=
  match s with inl l => inl (shl q l) | inr l => inr (shl q l) end.
Definition shlr {X} (q : N) (p : lx * X) : lx * X := (shl q (fst p), snd p).

Lemma backup_fr q l : backup (shl q l) = shl q (backup l). Proof. reflexivity. Qed.
Lemma ignore_fr q l : ignore (shl q l) = shl q (ignore l). Proof. reflexivity. Qed.
Lemma set_pos_fr q l p : set_pos (shl q l) p = shl q (set_pos l p). Proof. reflexivity. Qed.
Lemma set_start_fr q l p : set_start (shl q l) p = shl q (set_start l p). Proof. reflexivity. Qed.
Lemma set_dd_fr q l p : set_dd (shl q l) p = shl q (set_dd l p). Proof. reflexivity. Qed.
Lemma tick_fr q l p : tick (shl q l) p = shl q (tick l p). Proof. reflexivity. Qed.
Lemma loop_fuel_fr q l : loop_fuel ilen (shl q l) = loop_fuel ilen l. Proof. reflexivity. Qed.
Lemma soydoc_fuel_fr q l : soydoc_fuel ilen (shl q l) = soydoc_fuel ilen l. Proof. reflexivity. Qed.

Hint Rewrite backup_fr ignore_fr set_pos_fr set_start_fr set_dd_fr tick_fr loop_fuel_fr soydoc_fuel_fr : shift_out.

Definition sim {A} (shA : N -> A -> A) (x y : outcome A) : Prop :=
  forall v, x = Ok v -> exists q', y = Ok (shA q' v).

Lemma sim_ret {A} (shA : N -> A -> A) q a y : y = shA q a -> sim shA (Ok a) (Ok y).
Proof. intros -> v [= <-]. exists q. reflexivity. Qed.

Lemma sim_bind {A B} (shA : N -> A -> A) (shB : N -> B -> B) x y f g :
  sim shA x y -> (forall q a, sim shB (f a) (g (shA q a))) -> sim shB (bind x f) (bind y g).
Proof.
  intros Hx Hf v H. destruct x as [a| | | | |]; try discriminate H.
  destruct (Hx a eq_refl) as (q & ->). exact (Hf q a v H).
Qed.

Lemma bind_assoc {A B C} (x : outcome A) (f : A -> outcome B) (g : B -> outcome C) :
  bind (bind x f) g = bind x (fun a => bind (f a) g).
Proof. destruct x; reflexivity. Qed.

(* a step that reads the input only: a slice, a byte *)
Lemma sim_bind_pure {A B} (shB : N -> B -> B) (x : outcome A) f g :
  (forall a, sim shB (f a) (g a)) -> sim shB (bind x f) (bind x g).
Proof. intros Hf v H. destruct x as [a| | | | |]; try discriminate H. exact (Hf a v H). Qed.

(* the fields of a shifted state; every test of a state function reads the same on both sides *)
Ltac prj :=
  cbn [shl sh2 shsum shsl shll shlr setq l_pos l_start l_width l_dd l_last l_ticks t_typ t_val fst snd
       set_pos set_start set_dd tick backup ignore].

Lemma next_sim q l : sim sh2 (next inp ilen l) (next inp ilen (shl q l)).
Proof.
  intros v. unfold next. prj. destruct (ilen <=? l_pos l); [intros [= <-]; exists q; reflexivity|].
  destruct (l_pos l <? 0); [discriminate|]. destruct (decode_rune _) as [r0 w]. intros [= <-]. exists q. reflexivity.
Qed.

(* an item at a position p >= 0 of the input stands at b + p *)
Lemma sh_pos p : 0 <= p -> Z.to_N (b + p) = (Z.to_N b + Z.to_N (0 + p))%N.
Proof. lia. Qed.

Lemma emit_sim q t l : sim shl (emit inp ilen 0 t l) (emit inp ilen b t (shl q l)).
Proof.
  intros v. unfold emit, slice. cbv zeta. prj. destruct (ilen <? l_pos l); prj;
  (destruct (_ || _) eqn:C; [discriminate|]; intros [= <-]; cbn [bind]; rewrite sh_pos by lia; eexists; reflexivity).
Qed.

Lemma errorf_sim q c l : sim sh2 (errorf 0 c l) (errorf b c (shl q l)).
Proof.
  intros v. unfold errorf. prj. destruct (0 + l_pos l <? 0) eqn:C; [discriminate|]. intros [= <-].
  replace (b + l_pos l <? 0) with false by lia. exists q. rewrite (sh_pos (l_pos l)) by lia. reflexivity.
Qed.

Hint Resolve next_sim emit_sim errorf_sim : shift.

(* the shift of a result type ([tt]: the type holds no scanner state) *)
Ltac shift_of A :=
  lazymatch A with
  | lx => constr:(shl)
  | (?X * lx)%type => constr:(@sh2 X)
  | (?X * lx + ?Y * lx)%type => constr:(@shsum X Y)
  | (?X * lx + lx)%type => constr:(@shsl X)
  | (lx + lx)%type => constr:(shll)
  | (lx * ?X)%type => constr:(@shlr X)
  | _ => constr:(tt)
  end.

Ltac sim_ifs := repeat match goal with |- context [if ?c then _ else _] => destruct c end.

(* [sim] along the body of a function: a bind by sim_bind (the callee first, then the rest of the body for
   every result), a test or a match on a result by cases, a return by sim_ret; a call is closed by the
   callee's lemma (database shift, or the induction hypothesis of a loop) once the setters applied to
   the state are moved out of [shl] *)
Ltac sim_body :=
  prj;
  lazymatch goal with
  | |- sim _ (bind ?x _) _ =>
      lazymatch type of x with
      | outcome ?A =>
          let s := shift_of A in
          lazymatch s with
          | tt => apply sim_bind_pure; intros ?; sim_body
          | _ => eapply (sim_bind s); [sim_body | intros ? ?; sim_body]
          end
      end
  | |- sim _ (if ?c then _ else _) _ => destruct c; sim_body
  | |- sim _ (match ?p with _ => _ end) _ => destruct p; sim_body
  | |- sim _ (Ok _) _ => sim_ifs; eapply sim_ret; reflexivity
  | |- sim _ Diverge _ => intros ? [=]
  | |- sim _ OutOfFuel _ => intros ? [=]
  | |- _ => sim_ifs; autorewrite with shift_out; auto with shift
  end.

Lemma peek_sim q l : sim sh2 (peek inp ilen l) (peek inp ilen (shl q l)).
Proof. unfold peek. sim_body. Qed.

Lemma accept_sim q s l : sim sh2 (accept inp ilen s l) (accept inp ilen s (shl q l)).
Proof. unfold accept. sim_body. Qed.

Lemma accept_run_loop_sim s fuel : forall q l,
  sim shl (accept_run_loop inp ilen fuel s l) (accept_run_loop inp ilen fuel s (shl q l)).
Proof. induction fuel as [|f IH]; intros q l; cbn [accept_run_loop]; sim_body. Qed.

Lemma skip_space_loop_sim fuel : forall q l, sim shl (skip_space_loop inp ilen fuel l) (skip_space_loop inp ilen fuel (shl q l)).
Proof. induction fuel as [|f IH]; intros q l; cbn [skip_space_loop]; sim_body. Qed.

Lemma alnum_loop_sim fuel : forall q l, sim shl (alnum_loop ul ud inp ilen fuel l) (alnum_loop ul ud inp ilen fuel (shl q l)).
Proof. induction fuel as [|f IH]; intros q l; cbn [alnum_loop]; sim_body. Qed.

Lemma soydoc_space_loop_sim fuel : forall q l,
  sim shl (soydoc_space_loop inp ilen fuel l) (soydoc_space_loop inp ilen fuel (shl q l)).
Proof. induction fuel as [|f IH]; intros q l; cbn [soydoc_space_loop]; sim_body. Qed.

Lemma literal_space_loop_sim fuel : forall q ch l,
  sim sh2 (literal_space_loop inp ilen fuel ch l) (literal_space_loop inp ilen fuel ch (shl q l)).
Proof. induction fuel as [|f IH]; intros q ch l; cbn [literal_space_loop]; sim_body. Qed.

Hint Resolve peek_sim accept_sim accept_run_loop_sim skip_space_loop_sim alnum_loop_sim soydoc_space_loop_sim
  literal_space_loop_sim : shift.

Lemma accept_run_sim q s l : sim sh2 (accept_run inp ilen s l) (accept_run inp ilen s (shl q l)).
Proof. unfold accept_run. sim_body. Qed.

Lemma skip_space_sim q l : sim shl (skip_space inp ilen l) (skip_space inp ilen (shl q l)).
Proof. unfold skip_space. sim_body. Qed.

Lemma maybe_emit_text_sim q l bk : sim shl (maybe_emit_text inp ilen 0 l bk) (maybe_emit_text inp ilen b (shl q l) bk).
Proof. unfold maybe_emit_text. sim_body. Qed.

Lemma emit_to_sim q t st l : sim sh2 (emit_to inp ilen 0 t st l) (emit_to inp ilen b t st (shl q l)).
Proof. unfold emit_to. sim_body. Qed.

Lemma double_close_sim q l : sim shsl (double_close inp ilen 0 l) (double_close inp ilen b (shl q l)).
Proof. unfold double_close. sim_body. Qed.

Hint Resolve accept_run_sim skip_space_sim maybe_emit_text_sim emit_to_sim double_close_sim : shift.

Lemma lex_text_loop_sim fuel : forall q r0 l,
  sim sh2 (lex_text_loop inp ilen 0 fuel r0 l) (lex_text_loop inp ilen b fuel r0 (shl q l)).
Proof. induction fuel as [|f IH]; intros q r0 l; cbn [lex_text_loop]; sim_body. Qed.
Hint Resolve lex_text_loop_sim : shift.

Lemma lex_text_sim q l : sim sh2 (lex_text inp ilen 0 l) (lex_text inp ilen b (shl q l)).
Proof. unfold lex_text. sim_body. Qed.

Lemma lex_left_delim_sim q l : sim sh2 (lex_left_delim inp ilen 0 l) (lex_left_delim inp ilen b (shl q l)).
Proof. unfold lex_left_delim. sim_body. Qed.

Lemma lex_right_delim_sim q l : sim sh2 (lex_right_delim inp ilen 0 l) (lex_right_delim inp ilen b (shl q l)).
Proof. unfold lex_right_delim. sim_body. Qed.

Lemma lex_right_delim_end_sim q l : sim sh2 (lex_right_delim_end inp ilen 0 l) (lex_right_delim_end inp ilen b (shl q l)).
Proof. unfold lex_right_delim_end. sim_body. Qed.

Lemma lex_begin_tag_sim q l : sim sh2 (lex_begin_tag inp ilen l) (lex_begin_tag inp ilen (shl q l)).
Proof. unfold lex_begin_tag. sim_body. Qed.

Lemma lex_negative_sim q l : sim sh2 (lex_negative inp ilen 0 l) (lex_negative inp ilen b (shl q l)).
Proof. unfold lex_negative. sim_body. Qed.
Hint Resolve lex_negative_sim : shift.

Lemma lex_inside_tag_sim q l : sim sh2 (lex_inside_tag inp ilen 0 l) (lex_inside_tag inp ilen b (shl q l)).
Proof. unfold lex_inside_tag. sim_body. Qed.

Lemma soydoc_ident_loop_sim fuel : forall q l,
  sim shl (soydoc_ident_loop inp ilen 0 fuel l) (soydoc_ident_loop inp ilen b fuel (shl q l)).
Proof. induction fuel as [|f IH]; intros q l; cbn [soydoc_ident_loop]; sim_body. Qed.
Hint Resolve soydoc_ident_loop_sim : shift.

Lemma lex_soydoc_param_sim q l : sim shl (lex_soydoc_param inp ilen 0 l) (lex_soydoc_param inp ilen b (shl q l)).
Proof. unfold lex_soydoc_param. sim_body. Qed.
Hint Resolve lex_soydoc_param_sim : shift.

Lemma soydoc_loop_sim fuel : forall q star sol l,
  sim sh2 (soydoc_loop inp ilen 0 fuel star sol l) (soydoc_loop inp ilen b fuel star sol (shl q l)).
Proof. induction fuel as [|f IH]; intros q star sol l; cbn [soydoc_loop]; sim_body. Qed.
Hint Resolve soydoc_loop_sim : shift.

Lemma lex_soydoc_sim q l : sim sh2 (lex_soydoc inp ilen 0 l) (lex_soydoc inp ilen b (shl q l)).
Proof. unfold lex_soydoc. sim_body. Qed.

Lemma line_comment_loop_sim fuel : forall q l,
  sim sh2 (line_comment_loop inp ilen 0 fuel l) (line_comment_loop inp ilen b fuel (shl q l)).
Proof. induction fuel as [|f IH]; intros q l; cbn [line_comment_loop]; sim_body. Qed.

Lemma block_comment_loop_sim fuel : forall q star l,
  sim sh2 (block_comment_loop inp ilen 0 fuel star l) (block_comment_loop inp ilen b fuel star (shl q l)).
Proof. induction fuel as [|f IH]; intros q star l; cbn [block_comment_loop]; sim_body. Qed.

Lemma string_loop_sim fuel : forall q qu l,
  sim sh2 (string_loop inp ilen 0 fuel qu l) (string_loop inp ilen b fuel qu (shl q l)).
Proof. induction fuel as [|f IH]; intros q qu l; cbn [string_loop]; sim_body. Qed.

Lemma header_type_loop_sim fuel : forall q lns l,
  sim shsum (header_type_loop inp ilen 0 fuel lns l) (header_type_loop inp ilen b fuel lns (shl q l)).
Proof. induction fuel as [|f IH]; intros q lns l; cbn [header_type_loop]; sim_body. Qed.

Lemma css_loop_sim fuel : forall q l, sim shsl (css_loop inp ilen 0 fuel l) (css_loop inp ilen b fuel (shl q l)).
Proof. induction fuel as [|f IH]; intros q l; cbn [css_loop]; sim_body. Qed.

Hint Resolve line_comment_loop_sim block_comment_loop_sim string_loop_sim header_type_loop_sim css_loop_sim : shift.

Lemma lex_line_comment_sim q l : sim sh2 (lex_line_comment inp ilen 0 l) (lex_line_comment inp ilen b (shl q l)).
Proof. unfold lex_line_comment. sim_body. Qed.
Lemma lex_block_comment_sim q l : sim sh2 (lex_block_comment inp ilen 0 l) (lex_block_comment inp ilen b (shl q l)).
Proof. unfold lex_block_comment. sim_body. Qed.
Lemma lex_string_sim q qu l : sim sh2 (lex_string inp ilen 0 qu l) (lex_string inp ilen b qu (shl q l)).
Proof. unfold lex_string. sim_body. Qed.

Lemma lex_ident_sim q l : sim sh2 (lex_ident ul ud inp ilen 0 l) (lex_ident ul ud inp ilen b (shl q l)).
Proof. unfold lex_ident. sim_body. Qed.

Lemma lex_header_param_sim q l : sim sh2 (lex_header_param ul ud inp ilen 0 l) (lex_header_param ul ud inp ilen b (shl q l)).
Proof. unfold lex_header_param. sim_body. Qed.

Lemma lex_css_sim q l : sim sh2 (lex_css inp ilen 0 l) (lex_css inp ilen b (shl q l)).
Proof. unfold lex_css. sim_body. Qed.

Lemma lex_literal_sim q l : sim sh2 (lex_literal inp ilen 0 l) (lex_literal inp ilen b (shl q l)).
Proof. unfold lex_literal. sim_body. Qed.

Lemma scan_hex_sim q l : sim shsum (scan_hex inp ilen l) (scan_hex inp ilen (shl q l)).
Proof. unfold scan_hex. sim_body. Qed.
Lemma scan_mantissa_sim q hs l : sim shsum (scan_mantissa inp ilen hs l) (scan_mantissa inp ilen hs (shl q l)).
Proof. unfold scan_mantissa. sim_body. Qed.
Lemma scan_exponent_sim q t l : sim shsum (scan_exponent inp ilen t l) (scan_exponent inp ilen t (shl q l)).
Proof. unfold scan_exponent. sim_body. Qed.
Hint Resolve scan_hex_sim scan_mantissa_sim scan_exponent_sim : shift.

Lemma scan_number_sim q l : sim sh2 (scan_number ul ud inp ilen l) (scan_number ul ud inp ilen (shl q l)).
Proof. unfold scan_number. sim_body. Qed.
Hint Resolve scan_number_sim : shift.

Lemma lex_number_sim q l : sim sh2 (lex_number ul ud inp ilen 0 l) (lex_number ul ud inp ilen b (shl q l)).
Proof. unfold lex_number. sim_body. Qed.

Hint Resolve lex_text_sim lex_left_delim_sim lex_right_delim_sim lex_right_delim_end_sim lex_begin_tag_sim
  lex_inside_tag_sim lex_soydoc_sim lex_line_comment_sim lex_block_comment_sim lex_string_sim lex_ident_sim
  lex_header_param_sim lex_css_sim lex_literal_sim lex_number_sim : shift.

Lemma step_sim q st l : sim sh2 (step ul ud inp ilen 0 st l) (step ul ud inp ilen b st (shl q l)).
Proof. destruct st; cbn [step]; sim_body. Qed.
Hint Resolve step_sim : shift.

Lemma run_sim fuel : forall q st l, sim shl (run ul ud inp ilen 0 fuel st l) (run ul ud inp ilen b fuel st (shl q l)).
Proof.
  induction fuel as [|f IH]; intros q st l; destruct st; cbn [run]; sim_body.
Qed.

End Shift.

(* lexExprAt(name, s, outer, base), base >= 0: the items of lexExpr("", s), each position shifted by base *)
Definition shift_items (base : Z) (ts : list tok) : list tok := map (sh base) ts.

Theorem lex_items_at_shift (ul ud : Z -> bool) (base : Z) (fuel : nat) (s : bstr) (ts : list tok) :
  0 <= base -> lex_items ul ud fuel true s = Ok ts -> lex_items_at ul ud base fuel s = Ok (shift_items base ts).
Proof.
  intros Hb H. unfold lex_items, lex_items_at, lex_run, lex_run_at in *.
  destruct (run ul ud s (Z.of_nat (length s)) 0 fuel (entry_state true) lex_init) as [l| | | | |] eqn:E; try discriminate H.
  cbn [bind] in H. injection H as <-.
  destruct (run_sim ul ud s (Z.of_nat (length s)) base Hb fuel 0%N _ _ _ E) as (q1 & E1).
  change (shl base 0%N lex_init) with lex_init in E1. rewrite E1. cbn [bind shl l_out].
  unfold shift_items. rewrite map_rev. reflexivity.
Qed.
