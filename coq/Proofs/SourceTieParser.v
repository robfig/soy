(* Source tie, family 71-gotrans-parser-preds (parse/parse.go), the template-parser part: the
   special-character table, the case-list tests and the attribute decisions of Model/Parser.v
   against the same functions as gotrans translates them from the source of the tree under check.  (The expression
   parser's tables are in SourceTieExpr.v.) *)
From Coq Require Import ZArith NArith Bool Lia ZifyBool List.
From Soy Require Import Model.Bytes Generated.Tables Model.Token Model.ExprParser Model.Parser Proofs.BytesBase Proofs.SourceTieBase.
Import ListNotations.
Open Scope N_scope.

(* ---- specialChars[tok.typ] ---- *)
Lemma special_chars_matches_source (t : N) :
  assoc t special_chars = go_assoc_z (Z.of_N t) src_parse_specialChars.
Proof.
  rewrite <- (assoc_z_ext (fun x : bstr => x) bstr_eqb special_chars src_parse_specialChars);
    [destruct (assoc t special_chars); reflexivity|exact bstr_eqb_true|vm_compute; reflexivity|vm_compute; reflexivity].
Qed.

(* ---- isOneOf, inStringSlice ----
   Stated through go_res (the source never panics and answers ...): an early return out of a range loop is translated
   through List.find and is total, a flag with break or an index loop with continue goes through go_flow and is typed
   `option`.  The proofs follow the MODEL's recursion (one element at a time, the test decided on the model's side)
   and never look at the shape of the source's loop. *)
Lemma one_of_matches_source (c : N) (l : list N) :
  go_res (src_parse_isOneOf (Z.of_N c) (map Z.of_N l)) = Some (one_of c l).
Proof.
  unfold go_res, one_of, src_parse_isOneOf. cbv zeta.
  induction l as [|a l IH]; [reflexivity|].
  simpl. destruct (N.eqb c a) eqn:E; st_decide_ifs; [reflexivity|exact IH].
Qed.

(* parseAttrs tests inStringSlice(name, allowedNames); Model/Parser.v attrs_loop writes the test inline *)
Lemma attr_allowed_matches_source (item : bstr) (group : list bstr) :
  go_res (src_parse_inStringSlice item group) = Some (existsb (bstr_eqb item) group).
Proof.
  unfold go_res, src_parse_inStringSlice. cbv zeta.
  induction group as [|a l IH]; [reflexivity|].
  simpl. rewrite ?(bstr_eqb_sym a item).
  destruct (bstr_eqb item a) eqn:E; cbn [negb orb]; [reflexivity|exact IH].
Qed.

(* ---- parseAutoescape: the attribute text -> mode code, anything else t.errorf ---- *)
Lemma go_lookup_s_attr (k : bstr) (attrs : list (bstr * bstr)) : go_lookup_s k attrs [] = attr_or_empty k attrs.
Proof. reflexivity. Qed.

(* Both sides are functions of the attribute's text v that only compare v with literals: a switch, a chain of ifs, or a
   lookup in a table of the settings (whatever its name), in any order.  v is compared with every literal that occurs;
   where it is one of them both sides are evaluated, and where it is none of them every test is false. *)
Lemma autoescape_table_matches_source (attrs : list (bstr * bstr)) :
  option_map Z.of_N (assoc_s (attr_or_empty k_autoescape attrs) autoescape_attr_table) = src_parse_tree_parseAutoescape attrs.
Proof.
  unfold src_parse_tree_parseAutoescape.
  change [97; 117; 116; 111; 101; 115; 99; 97; 112; 101] with k_autoescape.
  rewrite go_lookup_s_attr. cbv zeta. generalize (attr_or_empty k_autoescape attrs) as v. intros v.
  st_unfold_tables. cbv [go_lookup_s go_has_s autoescape_attr_table assoc_s].
  repeat match goal with
         | |- context [bstr_eqb ?lit v] =>
             lazymatch lit with v => fail | _ => rewrite (bstr_eqb_sym lit v) end
         end.
  repeat match goal with
         | |- context [bstr_eqb v ?lit] =>
             lazymatch lit with
             | v => fail
             | _ => let E := fresh "E" in
                    destruct (bstr_eqb v lit) eqn:E;
                    [apply bstr_eqb_true in E; subst v; vm_compute; reflexivity|]
             end
         end.
  reflexivity.
Qed.

Theorem parse_autoescape_matches_source (inlen : N) (attrs : list (bstr * bstr)) (s : cst) :
  parse_autoescape inlen attrs s =
  match src_parse_tree_parseAutoescape attrs with
  | Some ae => COk (Z.to_N ae) s
  | None => c_errorf inlen x_autoescape s
  end.
Proof.
  unfold parse_autoescape. rewrite <- autoescape_table_matches_source.
  destruct (assoc_s (attr_or_empty k_autoescape attrs) autoescape_attr_table); cbn [option_map]; [|reflexivity].
  now rewrite N2Z.id.
Qed.

(* ---- boolAttr ---- *)
Theorem bool_attr_matches_source (inlen : N) (attrs : list (bstr * bstr)) (key : bstr) (dflt : bool) (s : cst) :
  bool_attr inlen attrs key dflt s =
  match src_parse_tree_boolAttr attrs key dflt with
  | Some x => COk x s
  | None => c_errorf inlen x_bool s
  end.
Proof.
  unfold bool_attr, src_parse_tree_boolAttr, attr, go_lookup_s, go_has_s. cbv zeta.
  destruct (assoc_s key attrs) as [v|]; cbn [negb]; [|reflexivity].
  change [116; 114; 117; 101] with k_true. change [102; 97; 108; 115; 101] with k_false.
  destruct (bstr_eqb v k_true); [reflexivity|]. destruct (bstr_eqb v k_false); reflexivity.
Qed.
