(* C19, parse half: the composed statement WITHOUT side hypotheses on the item list or on the nested
   scanner (Proofs/LexParseBridge.v: soy_file_total_all and nested_scanner_at_base).

   For EVERY byte string s: the scanner model returns an item list; the model of parse.SoyFile run on
   it -- with the scanner model itself (lexExpr / lexExprAt) as the scanner of quoted attribute
   expressions -- returns a tree or an error, never the slice panic of lineNumber, never out of fuel;
   an error carries a token whose line, as lexer.lineNumber computes it, lies between 1 and lines s,
   and that token is
     - the item the parser received last from the file's scanner or the one just before it, with
       everything Proofs/ErrPosFinal.v knows of a scanned item (inside s; an error item is the last
       item of the scan, at the cursor where it stopped; an unterminated construct: at the end of the
       input, on the last line), or
     - (class quoted:...) the last or last-but-one item received from the scan that the scanner model,
       STARTED AT base (lexExprAt), makes of the attribute's expression: the items themselves, not
       the expression-mode items shifted by base. *)
From Soy Require Import Model.Bytes Model.Utf8 Model.Outcome Model.Num Model.Values Model.Ast Model.Token Model.Lexer
  Model.RawText Model.ExprParser Model.Parser Model.ParseBytes Model.Interp Spec.ErrPos Generated.Tables
  Proofs.ErrTokProofs Proofs.ParseErrBound Proofs.LexerProofs Proofs.ParserProofs Proofs.LexParseBridge
  Proofs.ErrPosWindow Proofs.ErrPosWindowCmd Proofs.ErrPosFinal.
From Coq Require Import ZifyBool Lia List.
Import ListNotations.
Open Scope N_scope.

Section All.
Variable ul ud : Z -> bool.
Hypothesis Hl : ul (-1)%Z = false.
Hypothesis Hd : ud (-1)%Z = false.
Variable unq : bstr -> option bstr.

(* the window of a quoted attribute expression, in terms of the scan started at base *)
Definition c19_quoted_at (inlen : N) (t : tok) (c : bstr) (scans : list scanrec) : Prop :=
  is_prefix e_quoted c = true /\
  exists str base sr qs, In sr scans /\
    lex_items_at ul ud (Z.of_N base) (lex_budget str) str = Ok qs /\
    (t = itm qs (sc_recv sr) \/ t = itm qs (sc_recv sr - 1)%nat) /\
    (t_pos t <= inlen \/ (base = 0 /\ t_pos t <= N.of_nat (length str))).

Lemma c19_quoted_window_at inlen t c scans :
  quoted_window inlen (lexq_model ul ud) t c scans -> c19_quoted_at inlen t c scans.
Proof.
  intros (Hq & str & base & sr & Hin & Ht & Hpos). split; [exact Hq|].
  exists str, base, sr, (map (shift_tok base) (lexq_model ul ud str)).
  split; [exact Hin|]. split; [apply (nested_scanner_at_base ul ud Hl Hd)|]. split; [exact Ht|exact Hpos].
Qed.

Theorem c19_parse_error_position_all (s : bstr) :
  exists ts, lex_items ul ud (lex_budget s) false s = Ok ts /\
    let out := soy_file (N.of_nat (length s)) (lexq_model ul ud) unq ts in
    match po_result out with
    | POk _ _ => True
    | PErr t c st =>
        (is_prefix e_quoted c = false -> t_pos t <= N.of_nat (length s)) /\
        1 <= line_at s (t_pos t) <= lines s /\
        ((werr ts t st /\ item_facts ul ud s ts t) \/ c19_quoted_at (N.of_nat (length s)) t c (po_scans out))
    | PCrash _ | PFuel => False
    end.
Proof.
  destruct (soy_file_total_all ul ud Hl Hd unq s) as (ts & Hlex & Hte & _).
  exists ts. split; [exact Hlex|]. cbv zeta.
  destruct (po_result (soy_file (N.of_nat (length s)) (lexq_model ul ud) unq ts)) as [n st|t c st|m|] eqn:E;
    cbn in Hte; try contradiction; [exact I|].
  split; [|split; [apply line_at_inside|]].
  - intros Hq. unfold soy_file in E. destruct (parse_file_error_inside _ _ _ _ _ _ _ _ _ _ E) as [H|H]; [exact H | congruence].
  - destruct (parse_error_position ul ud Hl Hd _ s ts (lexq_model ul ud) unq t c st Hlex E) as [H|H]; [left; exact H|right].
    apply c19_quoted_window_at. exact H.
Qed.
End All.
