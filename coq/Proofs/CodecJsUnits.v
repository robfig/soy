(* C16, JavaScript counterparts: theorems about the models of the soyutils.js
   helpers (Model/JsDirectives.v, over UTF-16 code units), of the same shape as
   the theorems about the Go directives (Proofs/CodecProofs.v). *)
From Coq Require Import Lia ZifyBool.
From Soy Require Import Model.Bytes Model.Utf8 Model.Outcome Model.Escape Model.Directives Model.JsEscape Model.JsDirectives
  Spec.Html Spec.Codec Spec.JsUnits Proofs.Utf8Proofs Proofs.CodecProofs.
Open Scope N_scope.

(* ================= soy.$$escapeJsString ================= *)

Definition u_piece (c : N) : ustr := match u_js_escape1 c with Some e => e | None => [c] end.

Lemma u_escape_js_cons c r : u_escape_js_string (c :: r) = u_piece c ++ u_escape_js_string r.
Proof. cbn [u_escape_js_string]. unfold u_piece. destruct (u_js_escape1 c); reflexivity. Qed.

(* the units soy.$$escapeJsString replaces; a fact about every unit: these by evaluation, any other one is copied *)
Definition js_escaped : list N := [9; 10; 12; 13; 47; 92; 0; 8; 11; 34; 38; 39; 60; 61; 62; 133; 8232; 8233].

Lemma u_piece_cases (P : N -> ustr -> Prop) :
  Forall (fun c => P c (u_piece c)) js_escaped -> (forall c, mem c js_escaped = false -> P c [c]) ->
  forall c, P c (u_piece c).
Proof.
  intros Hesc Hother c. destruct (mem c js_escaped) eqn:E.
  - apply existsb_exists in E as (k & Hk & ->%N.eqb_eq). revert k Hk. now apply Forall_forall.
  - replace (u_piece c) with [c]; [now apply Hother|].
    unfold mem, js_escaped in E. cbn [existsb] in E. unfold u_piece, u_js_escape1. decide_ifs. reflexivity.
Qed.

Lemma jsu_piece_ok q c X : q = 39 \/ q = 34 ->
  jsu_read_aux q 0 (u_piece c ++ X) = option_map (cons c) (jsu_read_aux q 0 X).
Proof.
  intros Hq. revert X. pattern c, (u_piece c). apply u_piece_cases; clear c.
  - destruct Hq as [-> | ->]; repeat constructor.
  - intros c Hc X. unfold mem, js_escaped in Hc. cbn [existsb] in Hc.
    cbn [app jsu_read_aux jsu_tok]. unfold jsu_line_terminator. decide_ifs. reflexivity.
Qed.

(* the escaped text between single or double quotes denotes the value, for EVERY code-unit string *)
Theorem u_jsstr_roundtrip q s : q = 39 \/ q = 34 -> jsu_read q (u_escape_js_string s) = Some s.
Proof.
  intros Hq. unfold jsu_read. induction s as [|c r IH]; [reflexivity|].
  rewrite u_escape_js_cons, jsu_piece_ok by exact Hq. rewrite IH. reflexivity.
Qed.

(* no raw quote, backslash-free line terminator, < > & = in the escaped text *)
Definition u_js_inert (c : N) : Prop :=
  c <> 10 /\ c <> 13 /\ c <> 8232 /\ c <> 8233 /\ c <> 60 /\ c <> 62 /\ c <> 38 /\ c <> 61 /\ c <> 39 /\ c <> 34.

Lemma hexdigit_lc_u_inert n : n < 16 -> u_js_inert (hexdigit_lc n).
Proof. intros H. unfold u_js_inert, hexdigit_lc. brk; lia. Qed.

Lemma u_js_inert_all l : forallb (fun d => negb (mem d [10; 13; 8232; 8233; 60; 62; 38; 61; 39; 34])) l = true -> Forall u_js_inert l.
Proof.
  intros H. apply Forall_forall. intros d Hd. apply (proj1 (forallb_forall _ _) H) in Hd.
  unfold mem, u_js_inert in *. cbn [existsb] in Hd. lia.
Qed.

Theorem u_jsstr_inert s : Forall u_js_inert (u_escape_js_string s).
Proof.
  induction s as [|c r IH]; [constructor|]. rewrite u_escape_js_cons. apply Forall_app. split; [|exact IH].
  pattern c, (u_piece c). apply u_piece_cases; clear.
  - repeat (apply Forall_cons; [apply u_js_inert_all; reflexivity|]). apply Forall_nil.
  - intros c Hc. apply u_js_inert_all. unfold mem, js_escaped in *. cbn [forallb existsb] in *. lia.
Qed.

(* ================= soy.$$truncate ================= *)

Theorem u_truncate_fits s n e : (Z.of_nat (length s) <= n)%Z -> u_truncate s n e = s.
Proof. intros H. unfold u_truncate. destruct (Z.of_nat (length s) <=? n)%Z eqn:E; [reflexivity|lia]. Qed.

(* otherwise: a prefix (plus "..." exactly when the ellipsis applies), never longer than the limit
   (in code units), and never cut between the two halves of a surrogate pair *)
Theorem u_truncate_cut s n e : (n < Z.of_nat (length s))%Z ->
  exists k : nat,
    u_truncate s n e = take k s ++ (if trunc_ell n e then dots else [])
    /\ (k <= length s)%nat
    /\ (Z.of_nat k <= Z.max 0 (trunc_cut n e))%Z
    /\ (0 <= n -> Z.of_nat (length (u_truncate s n e)) <= n)%Z
    /\ (u_high_at s (Z.of_nat k - 1) && u_low_at s (Z.of_nat k) = false).
Proof.
  intros Hlen. unfold u_truncate. destruct (Z.of_nat (length s) <=? n)%Z eqn:E; [lia|].
  assert ((if e then if (n >? 3)%Z then ((n - 3)%Z, true) else (n, false) else (n, false)) = (trunc_cut n e, trunc_ell n e)) as ->.
  { unfold trunc_cut, trunc_ell. destruct e; cbn [andb]; [destruct (n >? 3)%Z|]; reflexivity. }
  set (c := trunc_cut n e). set (el := trunc_ell n e).
  assert (c <= n)%Z as Hcn by (subst c; unfold trunc_cut; destruct (e && (n >? 3)%Z); lia).
  assert (el = true -> c = n - 3 /\ 3 < n)%Z as Hel by (subst c el; unfold trunc_cut, trunc_ell; destruct (e && (n >? 3)%Z) eqn:Ee; [lia|discriminate]).
  destruct (u_high_at s (c - 1) && u_low_at s c) eqn:Eadj.
  - (* the cut moves back by one unit *)
    assert (0 < c)%Z as Hc0.
    { apply andb_true_iff in Eadj. destruct Eadj as [Eh _]. unfold u_high_at, u_at in Eh. destruct (c - 1 <? 0)%Z eqn:El; [discriminate|lia]. }
    exists (Z.to_nat (c - 1)). split; [reflexivity|]. split; [lia|]. split; [lia|]. split.
    + intros Hn. rewrite app_length, take_length by lia. destruct el; cbn [length dots]; [specialize (Hel eq_refl)|]; lia.
    + rewrite Z2Nat.id by lia. apply andb_true_iff in Eadj. destruct Eadj as [Eh _].
      (* the unit at c-1 is a high surrogate, hence not a low one *)
      unfold u_high_at, u_low_at in *. destruct (u_at s (c - 1)) as [x|]; [|discriminate].
      unfold u_is_high, u_is_low, in_range in *. rewrite andb_false_iff. right. lia.
  - destruct (Z.ltb_spec c 0) as [Hneg|Hpos].
    + exists 0%nat. replace (Z.to_nat c) with 0%nat by lia. split; [reflexivity|]. split; [lia|]. split; [lia|]. split.
      * intros Hn. cbn [take app]. destruct el; [specialize (Hel eq_refl); lia|cbn; lia].
      * reflexivity.
    + exists (Z.to_nat c). split; [reflexivity|]. split; [lia|]. split; [lia|]. split.
      * intros Hn. rewrite app_length, take_length by lia. destruct el; cbn [length dots]; [specialize (Hel eq_refl)|]; lia.
      * rewrite Z2Nat.id by lia. exact Eadj.
Qed.

(* ================= soy.$$escapeHtml, changeNewlineToBr, insertWordBreaks ================= *)

Lemma u_html_escape1_cases c :
  (u_html_escape1 c = None /\ c <> 60 /\ c <> 0 /\ c <> 34 /\ c <> 39 /\ c <> 38 /\ c <> 62) \/
  (exists e, u_html_escape1 c = Some e /\ Forall (fun d => d <> 60 /\ d <> 10 /\ d <> 13) e /\ c <> 10 /\ c <> 13).
Proof.
  unfold u_html_escape1.
  destruct (N.eqb_spec c 0); [right; eexists; split; [reflexivity|]; repeat constructor; lia|].
  destruct (N.eqb_spec c 34); [right; eexists; split; [reflexivity|]; repeat constructor; lia|].
  destruct (N.eqb_spec c 38); [right; eexists; split; [reflexivity|]; repeat constructor; lia|].
  destruct (N.eqb_spec c 39); [right; eexists; split; [reflexivity|]; repeat constructor; lia|].
  destruct (N.eqb_spec c 60); [right; eexists; split; [reflexivity|]; repeat constructor; lia|].
  destruct (N.eqb_spec c 62); [right; eexists; split; [reflexivity|]; repeat constructor; lia|].
  left. repeat split; assumption.
Qed.

Lemma u_esc1_no_lt c : Forall (fun d => d <> 60) (u_esc1 c).
Proof.
  unfold u_esc1. destruct (u_html_escape1_cases c) as [(E & H & _)|(e & E & H & _)]; rewrite E.
  - repeat constructor. exact H.
  - eapply Forall_impl; [|exact H]. cbn. tauto.
Qed.

Lemma u_escape_html_no_lt s : Forall (fun d => d <> 60) (u_escape_html s).
Proof. induction s as [|c r IH]; [constructor|]. cbn [u_escape_html]. apply Forall_app. split; [apply u_esc1_no_lt|exact IH]. Qed.

Lemma remove_newlines_u_escape s : remove_newlines (u_escape_html s) = u_escape_html (remove_newlines s).
Proof.
  induction s as [|c r IH]; [reflexivity|].
  cbn [remove_newlines]. destruct (N.eqb_spec c 10) as [->|H10].
  { cbn [orb]. rewrite <- IH. reflexivity. }
  destruct (N.eqb_spec c 13) as [->|H13].
  { cbn [orb]. rewrite <- IH. reflexivity. }
  cbn [orb u_escape_html]. rewrite <- IH. apply remove_newlines_app_nonl.
  unfold u_esc1. destruct (u_html_escape1_cases c) as [(E & _)|(e & E & H & _)]; rewrite E.
  - repeat constructor; assumption.
  - eapply Forall_impl; [|exact H]. cbn. tauto.
Qed.

(* nothing but line breaks changes in the escaped text *)
Theorem u_br_only s : remove_tok br (u_change_newline_to_br s) = u_escape_html (remove_newlines s).
Proof.
  unfold u_change_newline_to_br, u_newline_to_br.
  rewrite (nl2br_only_aux (length (u_escape_html s))); [|lia|apply u_escape_html_no_lt].
  apply remove_newlines_u_escape.
Qed.

(* the shim on ANY text without a tag open: nothing but <wbr> is added *)
Lemma u_iwb_only_aux maxc t : Forall (fun d => d <> 60) t ->
  forall intag inent n, remove_tok wbr (u_iwb_aux maxc intag inent n t) = t.
Proof.
  induction 1 as [|c r Hc Hr IH]; intros intag inent n; [reflexivity|].
  cbn [u_iwb_aux].
  set (brk := (n >=? maxc)%Z && negb (c =? 32) && negb (u_is_low c)).
  destruct (if intag then _ else _) as [[a1 a2] a3].
  destruct brk.
  - unfold wbr at 1 2. rewrite remove_tok_tok. rewrite remove_tok_other by exact Hc. fold wbr. rewrite IH. reflexivity.
  - cbn [app]. unfold wbr. rewrite remove_tok_other by exact Hc. fold wbr. rewrite IH. reflexivity.
Qed.

(* nothing but break opportunities changes in the escaped text *)
Theorem u_wbr_only s n : remove_tok wbr (u_insert_word_breaks s n) = u_escape_html s.
Proof. unfold u_insert_word_breaks, u_word_breaks. apply u_iwb_only_aux, u_escape_html_no_lt. Qed.

(* ================= soy.$$escapeUri ================= *)

Lemma pct_decode_bytes bs : forall rest, Forall (fun c => c < 256) bs ->
  pct_decode (pct_bytes bs ++ rest) = option_map (app bs) (pct_decode rest).
Proof.
  induction bs as [|c r IH]; intros rest H.
  - cbn [pct_bytes app]. destruct (pct_decode rest); reflexivity.
  - inversion H as [|? ? Hc Hr]; subst. cbn [pct_bytes]. unfold pct_byte. rewrite <- app_assoc. cbn [app pct_decode].
    change (37 =? 37) with true. cbv iota. rewrite hexval2_hexdigit by exact Hc. rewrite IH by exact Hr.
    destruct (pct_decode rest); reflexivity.
Qed.

Definition u_uri_byte (c : N) : Prop := uri_safe_byte c = true \/ c = 33 \/ c = 42.

Lemma pct_bytes_safe bs : Forall (fun c => c < 256) bs -> Forall u_uri_byte (pct_bytes bs).
Proof.
  induction 1 as [|c r Hc Hr IH]; [constructor|]. cbn [pct_bytes]. unfold pct_byte. cbn [app].
  constructor; [left; reflexivity|]. constructor; [left; apply hexdigit_safe; lia|]. constructor; [left; apply hexdigit_safe; lia|]. exact IH.
Qed.

Lemma encode_rune_bytes r : valid_scalar r -> Forall (fun c => c < 256) (encode_rune r).
Proof. intros Hv. destruct (encode_rune_shape r Hv) as (c0 & tl & -> & _ & _ & _ & _ & _ & H0 & Htl). constructor; assumption. Qed.

(* the output is made of A-Z a-z 0-9 - _ . ~ % (and ! * that encodeURIComponent leaves), and query-decodes to
   the UTF-8 form of the value; the helper throws exactly when a surrogate is unpaired *)
Theorem u_uri_roundtrip : forall n s, (length s <= n)%nat -> Forall (fun c => c < 65536) s ->
  match u_escape_uri s with
  | Ok out => exists bs, units_utf8 s = Some bs /\ pct_decode out = Some bs /\ Forall u_uri_byte out
  | Err _ => units_utf8 s = None
  | _ => False
  end.
Proof.
  induction n as [|n IH]; intros s Hlen Hu.
  - destruct s; [|cbn in Hlen; lia]. cbn. exists []. repeat split. constructor.
  - destruct s as [|c r]; [cbn; exists []; repeat split; constructor|].
    cbn [length] in Hlen. inversion Hu as [|? ? Hc Hr]; subst.
    cbn [u_escape_uri units_utf8].
    destruct (uri_unescaped c) eqn:Eun.
    + (* an unescaped ASCII character *)
      assert (c < 128 /\ u_is_low c = false /\ u_is_high c = false) as (Hc128 & -> & ->).
      { unfold uri_unescaped, in_range, mem in Eun. cbn [existsb] in Eun. unfold u_is_low, u_is_high, in_range. lia. }
      specialize (IH r ltac:(lia) Hr). destruct (u_escape_uri r) as [out| | | | |]; try contradiction.
      * destruct IH as (bs & -> & Hd & Hs). cbn [bind option_map]. rewrite encode_rune_ascii by exact Hc128.
        exists (c :: bs). split; [reflexivity|].
        destruct ((c =? 39) || (c =? 40) || (c =? 41)) eqn:Em.
        -- cbn [app pct_decode]. change (37 =? 37) with true. cbv iota. rewrite hexval2_hexdigit_lc by lia. rewrite Hd. split; [reflexivity|].
           constructor; [left; reflexivity|]. unfold u_uri_byte, uri_safe_byte, hexdigit_lc, in_range, mem. cbn [existsb].
           constructor; [left; brk; lia|]. constructor; [left; brk; lia|]. exact Hs.
        -- cbn [app pct_decode]. unfold uri_unescaped, in_range, mem in Eun. cbn [existsb] in Eun.
           destruct (N.eqb_spec c 37); [lia|]. destruct (N.eqb_spec c 43); [lia|]. rewrite Hd. split; [reflexivity|].
           constructor; [|exact Hs]. unfold u_uri_byte, uri_safe_byte, in_range, mem. cbn [existsb]. lia.
      * cbn [bind]. rewrite IH. reflexivity.
    + destruct (u_is_low c) eqn:Elo; [reflexivity|].
      destruct (u_is_high c) eqn:Ehi.
      * destruct r as [|l r2]; [reflexivity|]. destruct (u_is_low l) eqn:El; [|reflexivity].
        inversion Hr as [|? ? Hl Hr2]; subst. cbn [length] in Hlen.
        specialize (IH r2 ltac:(lia) Hr2).
        set (cp := 65536 + (c - 55296) * 1024 + (l - 56320)).
        assert (valid_scalar cp) as Hv by (unfold valid_scalar; subst cp; unfold u_is_high, u_is_low, in_range in *; lia).
        destruct (u_escape_uri r2) as [out| | | | |]; try contradiction.
        -- destruct IH as (bs & -> & Hd & Hs). cbn [bind option_map]. exists (encode_rune cp ++ bs). split; [reflexivity|].
           rewrite pct_decode_bytes by (apply encode_rune_bytes, Hv). rewrite Hd. split; [reflexivity|].
           apply Forall_app. split; [apply pct_bytes_safe, encode_rune_bytes, Hv|exact Hs].
        -- cbn [bind]. rewrite IH. reflexivity.
      * assert (valid_scalar c) as Hv by (unfold valid_scalar; unfold u_is_high, u_is_low, in_range in *; lia).
        specialize (IH r ltac:(lia) Hr). destruct (u_escape_uri r) as [out| | | | |]; try contradiction.
        -- destruct IH as (bs & -> & Hd & Hs). cbn [bind option_map]. exists (encode_rune c ++ bs). split; [reflexivity|].
           rewrite pct_decode_bytes by (apply encode_rune_bytes, Hv). rewrite Hd. split; [reflexivity|].
           apply Forall_app. split; [apply pct_bytes_safe, encode_rune_bytes, Hv|exact Hs].
        -- cbn [bind]. rewrite IH. reflexivity.
Qed.

(* ---- no <wbr> inside a character reference (limit >= 1): the output of the generated code's
   insertWordBreaks(escapeHtml(x), n) is a concatenation of units, each <wbr> or the whole escaped image of
   one code unit of x ---- *)
Definition u_iwb_unit (u : ustr) : Prop := u = wbr \/ exists c, u = u_esc1 c.

(* the body of a reference written by soy.$$escapeHtml: between & and ; *)
Definition ent_body_char (c : N) : Prop := c <> 59 /\ c <> 60 /\ c <> 32 /\ u_is_low c = false.

Lemma u_iwb_in_entity maxc n body : forall rest, (n < maxc)%Z -> Forall ent_body_char body ->
  u_iwb_aux maxc false true n (body ++ 59 :: rest) = body ++ 59 :: u_iwb_aux maxc false false (n + 1)%Z rest.
Proof.
  induction body as [|c r IH]; intros rest Hn Hb.
  - cbn [app u_iwb_aux]. replace (n >=? maxc)%Z with false by lia. cbn [andb app]. reflexivity.
  - inversion Hb as [|? ? (H59 & H60 & H32 & Hlow) Hr]; subst. cbn [app u_iwb_aux].
    replace (n >=? maxc)%Z with false by lia. cbn [andb app].
    destruct (N.eqb_spec c 59); [congruence|]. destruct (N.eqb_spec c 60); [congruence|]. destruct (N.eqb_spec c 32); [congruence|].
    rewrite IH by assumption. reflexivity.
Qed.

Lemma u_html_escape1_shape c e : u_html_escape1 c = Some e -> exists body, e = 38 :: body ++ [59] /\ Forall ent_body_char body.
Proof.
  unfold u_html_escape1.
  repeat match goal with |- (if N.eqb c ?k then _ else _) = _ -> _ =>
    destruct (N.eqb c k);
    [intros H; injection H as <-;
     match goal with |- exists body, 38 :: ?l = _ /\ _ => exists (removelast l) end;
     split; [reflexivity|repeat constructor; unfold u_is_low, in_range; lia]|] end.
  discriminate.
Qed.

Lemma u_iwb_step maxc n c rest : (1 <= maxc)%Z ->
  exists pre n', (pre = [] \/ pre = wbr) /\
    u_iwb_aux maxc false false n (u_esc1 c ++ rest) = pre ++ u_esc1 c ++ u_iwb_aux maxc false false n' rest.
Proof.
  intros Hm. unfold u_esc1. destruct (u_html_escape1 c) as [e|] eqn:Ee.
  - destruct (u_html_escape1_shape c e Ee) as (body & -> & Hb).
    cbn [app u_iwb_aux]. change (38 =? 32) with false. change (u_is_low 38) with false. rewrite !andb_true_r.
    change (38 =? 60) with false. change (38 =? 38) with true. cbv iota.
    rewrite <- app_assoc. cbn [app].
    destruct (n >=? maxc)%Z eqn:En.
    + rewrite u_iwb_in_entity by (try assumption; lia). exists wbr, (0 + 1)%Z. split; [auto|]. cbn [app]. rewrite <- !app_assoc. reflexivity.
    + rewrite u_iwb_in_entity by (try assumption; lia). exists [], (n + 1)%Z. split; [auto|]. cbn [app]. rewrite <- !app_assoc. reflexivity.
  - (* an ordinary unit: not & < (nor the other escaped ones) *)
    destruct (u_html_escape1_cases c) as [(_ & H60 & _ & _ & _ & H38 & _)|(e & E & _)]; [|congruence].
    cbn [app u_iwb_aux]. destruct (N.eqb_spec c 60); [congruence|]. destruct (N.eqb_spec c 38); [congruence|].
    destruct ((n >=? maxc)%Z && negb (c =? 32) && negb (u_is_low c)).
    + destruct (c =? 32); eexists wbr, _; (split; [auto|reflexivity]).
    + destruct (c =? 32); eexists [], _; (split; [auto|reflexivity]).
Qed.

Theorem u_wbr_units s maxc : (1 <= maxc)%Z ->
  exists us, Forall u_iwb_unit us /\ u_insert_word_breaks s maxc = concat_b us.
Proof.
  intros Hm. unfold u_insert_word_breaks, u_word_breaks. generalize 0%Z as n.
  induction s as [|c r IH]; intros n; [exists []; split; [constructor|reflexivity]|].
  cbn [u_escape_html]. destruct (u_iwb_step maxc n c (u_escape_html r) Hm) as (pre & n' & Hpre & ->).
  destruct (IH n') as (us & Hus & ->).
  destruct Hpre as [-> | ->].
  - exists (u_esc1 c :: us). split; [constructor; [right; eauto|exact Hus]|reflexivity].
  - exists (wbr :: u_esc1 c :: us). split; [constructor; [left; reflexivity|constructor; [right; eauto|exact Hus]]|reflexivity].
Qed.
