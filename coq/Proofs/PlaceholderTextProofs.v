(* C17, last sentence: "the message extractor identifies placeholders by this text".

   Model/MsgId.v names the placeholders of a message from pairs (base name, String() text),
   the text being opaque there.  Here the text is the printed print command: two placeholders
   of one message get the same name only if their print commands are the same up to
   positions, and print commands that are the same up to positions print the same text.

   The step from the printed TEXT to the printed ITEMS is the scanner's, which is not modelled
   in this file: it enters as the Section hypothesis [lex_print] ("the scanner reads the text
   printed for a well-formed print command as the items tokens_of_print gives, up to
   positions"), which the C17 harness checks on every run (token correspondence). *)
From Soy Require Import Model.Bytes Model.Num Model.Outcome Model.Values Model.Ast Model.Token Model.ExprParser Model.AstPrint Model.MsgId
  Generated.Tables Spec.ExprSyntax Proofs.ExprParserRules Proofs.ExprParserProofs Proofs.MsgIdProofs.
Require Import Lia ZifyBool.
Open Scope N_scope.

(* ---- the printers do not look at positions ---- *)
Lemma level_of_strip e : level_of (strip_pos e) = level_of e.
Proof. destruct e; reflexivity. Qed.

Fixpoint fsize (e : node) : nat :=
  match e with
  | NFunc _ _ args => S (list_sum (map fsize args))
  | NListLit _ items => S (list_sum (map fsize items))
  | NMapLit _ items => S (list_sum (map (fun kv => fsize (snd kv)) items))
  | NDataRef _ _ acc => S (list_sum (map fsize acc))
  | NAccExpr _ _ a => S (fsize a)
  | NNot _ a | NNeg _ a => S (fsize a)
  | NBin _ _ a c => S (fsize a + fsize c)
  | NTern _ c x y => S (fsize c + fsize x + fsize y)
  | NPrint _ a dirs => S (fsize a + list_sum (map fsize dirs))
  | NDirective _ _ args => S (list_sum (map fsize args))
  | _ => 1%nat
  end.

Lemma fsize_induction (P : node -> Prop) :
  (forall e, (forall c, (fsize c < fsize e)%nat -> P c) -> P e) -> forall e, P e.
Proof.
  intros H e. assert (G : forall n c, (fsize c < n)%nat -> P c).
  { induction n as [|n IH]; intros c Hc; [lia|]. apply H. intros d Hd. apply IH. lia. }
  apply (G (S (fsize e))). lia.
Qed.

Lemma opt_all_map_ext (f g : node -> option bstr) l :
  (forall x, In x l -> f x = g x) -> opt_all (map f l) = opt_all (map g l).
Proof. intros H. f_equal. apply map_ext_in, H. Qed.

Lemma print_node_strip : forall e, print_node (strip_pos e) = print_node e.
Proof.
  induction e as [e IH] using fsize_induction.
  assert (HL : forall l, (list_sum (map fsize l) < fsize e)%nat ->
                         opt_all (map print_node (map strip_pos l)) = opt_all (map print_node l)).
  { intros l Hl. rewrite map_map. apply opt_all_map_ext. intros c Hin.
    apply IH. pose proof (list_sum_In fsize c l Hin). lia. }
  destruct e; try reflexivity; cbn [strip_pos print_node].
  - (* function *) rewrite HL by (cbn [fsize]; lia). reflexivity.
  - (* list *) rewrite HL by (cbn [fsize]; lia). reflexivity.
  - (* map *) destruct items as [|kv items]; [reflexivity|].
    change ((fst kv, strip_pos (snd kv)) :: map (fun kv0 => (fst kv0, strip_pos (snd kv0))) items)
      with (map (fun kv0 => (fst kv0, strip_pos (snd kv0))) (kv :: items)).
    remember (kv :: items) as its eqn:Eits. rewrite map_map. cbn [fst snd].
    assert (Hm : map (fun x => (fst x, print_node (strip_pos (snd x)))) its = map (fun x => (fst x, print_node (snd x))) its).
    { apply map_ext_in. intros x Hin. f_equal. apply IH. cbn [fsize].
      pose proof (list_sum_In (fun kv => fsize (snd kv)) x _ Hin). lia. }
    rewrite Hm. subst its. reflexivity.
  - (* data reference *) rewrite HL by (cbn [fsize]; lia). reflexivity.
  - (* [e] *) rewrite IH by (cbn [fsize]; lia). reflexivity.
  - (* not *) rewrite IH, level_of_strip by (cbn [fsize]; lia). reflexivity.
  - (* negate *) rewrite IH, level_of_strip by (cbn [fsize]; lia). reflexivity.
  - (* binary *) rewrite !IH, !level_of_strip by (cbn [fsize]; lia). reflexivity.
  - (* ternary *) rewrite !IH, !level_of_strip by (cbn [fsize]; lia). reflexivity.
  - (* print *) rewrite IH, HL by (cbn [fsize]; lia). reflexivity.
  - (* directive *) destruct args as [|a args]; [reflexivity|]. cbn [map].
    rewrite IH by (cbn [fsize]; pose proof (list_sum_In fsize a (a :: args) (or_introl eq_refl)); lia).
    rewrite map_map. do 3 f_equal. apply map_ext_in. intros c Hin.
    apply IH. cbn [fsize]. pose proof (list_sum_In fsize c (a :: args) (or_intror Hin)). lia.
Qed.

Lemma show_directive_strip sty path d :
  show_directive sty path (strip_pos d) = map strip_tok (show_directive sty path d).
Proof.
  destruct d; try reflexivity. cbn [strip_pos show_directive map]. do 2 f_equal.
  rewrite concat_map, mapi_from_map, map_mapi_from. f_equal.
  apply mapi_from_ext_in. intros i c _. cbn [map]. f_equal; [destruct (Nat.eqb i 0); reflexivity|].
  rewrite map_parens, show_strip. reflexivity.
Qed.

Lemma show_print_strip sty path n :
  show_print sty path (strip_pos n) = map strip_tok (show_print sty path n).
Proof.
  destruct n; try reflexivity. cbn [strip_pos show_print]. rewrite !map_app, map_parens, show_strip. f_equal.
  cbn [map]. f_equal. rewrite concat_map, mapi_from_map, map_mapi_from. f_equal.
  apply mapi_from_ext_in. intros i d _. apply show_directive_strip.
Qed.

Lemma wf_print_strip n : wf_print n -> wf_print (strip_pos n).
Proof.
  destruct n; cbn [wf_print]; try contradiction. intros [Ha Hd]. cbn [strip_pos wf_print]. split; [apply wf_strip, Ha|].
  eapply allP_map_in; [|exact Hd]. intros d _ Hw. destruct d; cbn [wf_directive] in *; try contradiction.
  cbn [strip_pos wf_directive]. eapply allP_map_in; [|exact Hw]. intros c _ Hc. apply wf_strip, Hc.
Qed.

(* print commands that print the same items (up to positions) are the same (up to positions) *)
Theorem print_command_injective n1 n2 :
  wf_print n1 -> wf_print n2 ->
  map strip_tok (tokens_of_print n1) = map strip_tok (tokens_of_print n2) -> strip_pos n1 = strip_pos n2.
Proof.
  intros H1 H2 E. apply wf_print_strip in H1, H2. unfold tokens_of_print in E. rewrite <- !show_print_strip in E.
  destruct n1; cbn [strip_pos wf_print] in H1; try contradiction.
  destruct n2; cbn [strip_pos wf_print] in H2; try contradiction.
  cbn [strip_pos] in *.
  destruct (parse_print_roundtrip_cmd 0 _ _ [] H1) as (s1 & f1 & _ & F1).
  destruct (parse_print_roundtrip_cmd 0 _ _ [] H2) as (s2 & f2 & _ & F2).
  specialize (F1 (max f1 f2) ltac:(lia)). specialize (F2 (max f1 f2) ltac:(lia)).
  unfold tokens_of_print in F1, F2. rewrite E in F1. rewrite F1 in F2. inversion F2. reflexivity.
Qed.

(* ================= placeholders ================= *)
Section Placeholders.
(* the scanner, abstractly: the text printed for a well-formed print command is read as the
   items the Spec gives for it, up to positions (checked by the harness on every run) *)
Variable lex : bstr -> list tok.
Hypothesis lex_print : forall n s, wf_print n -> print_node n = Some s ->
  map strip_tok (lex s) = map strip_tok (tokens_of_print n).

(* two print commands print the same text only if they are the same print command ... *)
Theorem same_text_same_command n1 n2 s :
  wf_print n1 -> wf_print n2 -> print_node n1 = Some s -> print_node n2 = Some s -> strip_pos n1 = strip_pos n2.
Proof.
  intros H1 H2 P1 P2. apply print_command_injective; auto.
  rewrite <- (lex_print n1 s H1 P1), <- (lex_print n2 s H2 P2). reflexivity.
Qed.

(* ... and the same print command (up to positions) prints the same text *)
Theorem same_command_same_text n1 n2 : strip_pos n1 = strip_pos n2 -> print_node n1 = print_node n2.
Proof. intros E. rewrite <- (print_node_strip n1), <- (print_node_strip n2), E. reflexivity. Qed.

(* the message extractor (Model/MsgId.v: setPlaceholderNames) over these texts *)
Variables (order : list bstr -> list bstr) (body : list mpart) (es : list (bstr * bstr)) (nm : namemap).
Hypothesis Hp : is_perm order.
Hypothesis Hes : msg_entries body = Ok es.
Hypothesis Hnm : msg_names order body = Ok nm.

(* two placeholders of the message that get the same name are the same print command *)
Theorem same_name_same_command b1 b2 n1 n2 s1 s2 :
  wf_print n1 -> wf_print n2 -> print_node n1 = Some s1 -> print_node n2 = Some s2 ->
  In (b1, s1) es -> In (b2, s2) es ->
  name_of nm b1 s1 = name_of nm b2 s2 -> b1 = b2 /\ strip_pos n1 = strip_pos n2.
Proof.
  intros W1 W2 P1 P2 I1 I2 E.
  pose proof (names_distinct order body es nm Hp Hes Hnm b1 s1 b2 s2 I1 I2 E) as Heq.
  injection Heq as -> ->. split; [reflexivity|]. eapply same_text_same_command; eauto.
Qed.

(* and the same print command under the same base name gets the same name *)
Theorem same_command_same_name b n1 n2 s1 s2 :
  print_node n1 = Some s1 -> print_node n2 = Some s2 -> strip_pos n1 = strip_pos n2 ->
  name_of nm b s1 = name_of nm b s2.
Proof.
  intros P1 P2 E. pose proof (same_command_same_text n1 n2 E) as Ht. rewrite P1, P2 in Ht. injection Ht as ->. reflexivity.
Qed.
End Placeholders.
