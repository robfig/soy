(* C09 — renders, JavaScript generation and compilations of independent bundles
   as threads (Model/ConcRender.v): they satisfy the ownership discipline of
   Model/Conc.v, hence every family of them is race-free at the model's
   abstract locations under every schedule, and each computes what it computes
   alone (Proofs/ConcProofs.v).  The one fact about the renderer that is used is
   C08's [render_no_shared_writes] (Proofs/PurityProofs.v): no [set] of any
   render lands on a frame whose map belongs to the caller. *)
From Coq Require Import List Arith Bool Lia.
From Soy Require Import Model.Bytes Model.Values Model.Outcome Model.Ast Model.Interp Model.Conc Model.ConcRender
  Proofs.ConcProofs Proofs.PurityProofs.
Import ListNotations.
Open Scope N_scope.

Lemma rloc_eqb_spec : forall a c, rloc_eqb a c = true <-> a = c.
Proof.
  intros [| | | | |i] [| | | | |j]; cbn; split; intros H; try reflexivity; try discriminate.
  - apply Nat.eqb_eq in H; now subst.
  - inversion H; apply Nat.eqb_refl.
Qed.

Section Threads.
Variable J : Type.
Variable jsgen : registry -> N -> J.
Variable compile : bstr -> registry.

Notation tres := (tres J).
Notation rprog := (rprog J).
Notation render_prog := (render_prog J).
Notation jsgen_prog := (jsgen_prog J jsgen).
Notation compile_prog := (compile_prog J compile).
Notation task_prog := (task_prog J jsgen compile).
Notation task_progs := (task_progs J jsgen compile).
Notation progs_from := (progs_from J jsgen compile).

Definition read4 : list (access rloc sval) := [Rd LRegistry; Rd LConfig; Rd LMessages; Rd LHeap].

Lemma render_on_no_writes rq vr vc vm vh rr : render_on rq vr vc vm vh = Some rr -> rr_shared_writes rr = [].
Proof.
  unfold render_on. destruct vr, vc, vm, vh; try discriminate.
  destruct (cfg_on rq r oblig m h) as [cf|]; [|discriminate].
  destruct (data_on rq h) as [[id d]|]; [|discriminate].
  intros H; inversion H; subst. apply render_no_shared_writes.
Qed.

Lemma render_exec rq (s : store rloc sval) :
  exec rloc_eqb (render_prog rq) s = (RRender J (render_alone rq s), s, read4).
Proof.
  unfold ConcRender.render_prog, render_alone. cbn [exec].
  destruct (render_on rq (s LRegistry) (s LConfig) (s LMessages) (s LHeap)) as [rr|] eqn:E; [|reflexivity].
  rewrite (render_on_no_writes _ _ _ _ _ _ E). reflexivity.
Qed.

(* the accesses of a render to shared locations: four reads, no write *)
Lemma render_trace_reads rq s : render_trace J rq s = read4.
Proof. unfold render_trace, solo_trace. now rewrite render_exec. Qed.

Lemma render_result_alone rq s : solo_result rloc_eqb (render_prog rq) s = RRender J (render_alone rq s).
Proof. unfold solo_result. now rewrite render_exec. Qed.

Lemma render_write_free rq s : write_free rloc_eqb (render_prog rq) s.
Proof. unfold write_free, solo_trace. rewrite render_exec. repeat constructor. Qed.

Definition js_alone (file : N) (s : store rloc sval) : option J :=
  match s LRegistry with SRegistry r => Some (jsgen r file) | _ => None end.

Lemma jsgen_exec file (s : store rloc sval) :
  exec rloc_eqb (jsgen_prog file) s = (RJs J (js_alone file s), s, [Rd LRegistry]).
Proof. unfold ConcRender.jsgen_prog, js_alone. cbn [exec]. destruct (s LRegistry); reflexivity. Qed.

Lemma compile_exec i src (s : store rloc sval) :
  exec rloc_eqb (compile_prog i src) s =
  (RCompiled J (SRegistry (compile src)), upd rloc_eqb s (LOwn i) (SRegistry (compile src)),
   [Wr (LOwn i) (SRegistry (compile src)); Rd (LOwn i)]).
Proof. unfold ConcRender.compile_prog. cbn [exec]. unfold upd at 1. cbn [rloc_eqb]. now rewrite Nat.eqb_refl. Qed.

Lemma task_disciplined i t s : disciplined rloc_eqb rowner i (task_prog i t) s.
Proof.
  unfold disciplined, solo_trace. destruct t as [rq|file|src]; cbn [ConcRender.task_prog].
  - rewrite render_exec. repeat constructor.
  - rewrite jsgen_exec. repeat constructor.
  - rewrite compile_exec. constructor; [reflexivity|]. constructor; [right; reflexivity|constructor].
Qed.

Lemma nth_error_progs_from ts : forall i0 i, nth_error (progs_from i0 ts) i = option_map (task_prog (i0 + i)) (nth_error ts i).
Proof.
  induction ts as [|t r IH]; intros i0 [|i]; cbn [ConcRender.progs_from nth_error option_map]; try reflexivity.
  - now rewrite Nat.add_0_r.
  - rewrite IH. now rewrite Nat.add_succ_r.
Qed.

Lemma nth_error_task_progs ts i : nth_error (task_progs ts) i = option_map (task_prog i) (nth_error ts i).
Proof. unfold ConcRender.task_progs. now rewrite nth_error_progs_from. Qed.

Lemma tasks_disciplined ts s : all_disciplined rloc_eqb rowner (task_progs ts) s.
Proof.
  intros i p Hp. rewrite nth_error_task_progs in Hp. destruct (nth_error ts i) as [t|]; [|discriminate].
  inversion Hp; subst. apply task_disciplined.
Qed.

(* what task t, as thread i, returns when run alone on s, and how many accesses it makes *)
Definition task_alone (i : nat) (t : task) (s : store rloc sval) : tres :=
  match t with
  | TRender rq => RRender J (render_alone rq s)
  | TJsGen f => RJs J (js_alone f s)
  | TCompile src => RCompiled J (SRegistry (compile src))
  end.
Definition task_accesses (t : task) : nat :=
  match t with TRender _ => 4%nat | TJsGen _ => 1%nat | TCompile _ => 2%nat end.

Lemma task_result i t s : solo_result rloc_eqb (task_prog i t) s = task_alone i t s.
Proof.
  unfold solo_result. destruct t; cbn [ConcRender.task_prog task_alone];
    [rewrite render_exec|rewrite jsgen_exec|rewrite compile_exec]; reflexivity.
Qed.
Lemma task_length i t s : length (solo_trace rloc_eqb (task_prog i t) s) = task_accesses t.
Proof.
  unfold solo_trace. destruct t; cbn [ConcRender.task_prog task_accesses];
    [rewrite render_exec|rewrite jsgen_exec|rewrite compile_exec]; reflexivity.
Qed.

Theorem concurrent_tasks_race_free :
  forall (ts : list task) (s0 : store rloc sval) (sched : list nat),
    ~ has_race (snd (run rloc_eqb sched (Build_config (task_progs ts) s0))).
Proof.
  intros ts s0 sched.
  apply (readonly_sharing_race_free rloc sval tres rloc_eqb rloc_eqb_spec rowner). apply tasks_disciplined.
Qed.

Theorem concurrent_tasks_sequential :
  forall (ts : list task) (s0 : store rloc sval) (sched : list nat) c tr,
    run rloc_eqb sched (Build_config (task_progs ts) s0) = (c, tr) ->
    (* registry, configuration, message bundle and the caller's maps are as they were *)
    shared c LRegistry = s0 LRegistry /\ shared c LConfig = s0 LConfig
    /\ shared c LMessages = s0 LMessages /\ shared c LHeap = s0 LHeap
    /\ forall i t, nth_error ts i = Some t ->
         (* a task that has finished returns what it returns alone on the initial store *)
         (forall r, nth_error (threads c) i = Some (Done r) -> r = task_alone i t s0)
         (* and it has finished once it was scheduled as often as it has accesses *)
         /\ ((task_accesses t <= count_occ Nat.eq_dec sched i)%nat ->
               nth_error (threads c) i = Some (Done (task_alone i t s0)))
         (* what it has done so far is a prefix of what it does alone *)
         /\ proj i tr = firstn (count_occ Nat.eq_dec sched i) (solo_trace rloc_eqb (task_prog i t) s0).
Proof.
  intros ts s0 sched c tr Hrun.
  destruct (readonly_sharing_sequential rloc sval tres rloc_eqb rloc_eqb_spec rowner
              (task_progs ts) s0 sched c tr (tasks_disciplined ts s0) Hrun) as (Hsh & _ & Hth).
  split; [apply Hsh; reflexivity|]. split; [apply Hsh; reflexivity|].
  split; [apply Hsh; reflexivity|]. split; [apply Hsh; reflexivity|].
  intros i t Ht.
  assert (Hp : nth_error (task_progs ts) i = Some (task_prog i t)) by (rewrite nth_error_task_progs, Ht; reflexivity).
  destruct (Hth i _ Hp) as (Hproj & Hdone & Hfin).
  rewrite task_result in Hdone, Hfin. rewrite task_length in Hfin.
  split; [|split; [exact Hfin|exact Hproj]].
  intros r Hr. apply (Hdone r Hr).
Qed.

(* [render_prog] reads each shared object once, before computing.  The real
   renderer reads the registry, the data maps and the bundle piecemeal, all
   along the render.  The interleaving theorems hold for arbitrary thread
   programs, so the placement and number of reads is immaterial: ANY program
   that, alone on the initial store, performs no write and returns the
   render's result may stand for the render. *)
Definition implements_render (s0 : store rloc sval) (p : rprog) (rq : creq) : Prop :=
  write_free rloc_eqb p s0 /\ solo_result rloc_eqb p s0 = RRender J (render_alone rq s0).

Lemma render_prog_implements s0 rq : implements_render s0 (render_prog rq) rq.
Proof. split; [apply render_write_free | apply render_result_alone]. Qed.

Theorem any_read_placement :
  forall (ps : list rprog) (rqs : list creq) (s0 : store rloc sval) (sched : list nat) c tr,
    Forall2 (implements_render s0) ps rqs ->
    run rloc_eqb sched (Build_config ps s0) = (c, tr) ->
    ~ has_race tr
    /\ (forall l, shared c l = s0 l)
    /\ forall i rq r, nth_error rqs i = Some rq -> nth_error (threads c) i = Some (Done r) ->
         r = RRender J (render_alone rq s0).
Proof.
  intros ps rqs s0 sched c tr HF Hrun.
  assert (Hwf : forall p, In p ps -> write_free rloc_eqb p s0).
  { intros p Hin. clear Hrun. induction HF as [|p' rq' ps' rqs' [Hw _] _ IH]; [contradiction|].
    destruct Hin as [->|Hin]; [exact Hw|apply IH; exact Hin]. }
  split.
  - pose proof (write_free_race_free rloc sval tres rloc_eqb rloc_eqb_spec ps s0 sched Hwf) as Hnr.
    rewrite Hrun in Hnr. exact Hnr.
  - destruct (write_free_sequential rloc sval tres rloc_eqb rloc_eqb_spec ps s0 sched c tr Hwf Hrun) as (Hsh & _ & Hth).
    split; [exact Hsh|].
    intros i rq r Hrq Hd.
    assert (Hp : exists p, nth_error ps i = Some p /\ implements_render s0 p rq).
    { clear Hrun Hth Hwf Hd. revert i Hrq. induction HF as [|p' rq' ps' rqs' Himp _ IH]; intros [|i] Hrq; try discriminate.
      - inversion Hrq; subst. exists p'; split; [reflexivity|exact Himp].
      - apply IH; exact Hrq. }
    destruct Hp as (p & Hp & _ & Hres).
    destruct (Hth i p Hp) as (_ & Hdone & _). rewrite (Hdone r Hd). exact Hres.
Qed.

End Threads.

(* Two renders of the pinned tree's evalPrint with an obligatory directive
   (each reads the node's list and writes the appended list back) race under
   the schedule [0;0;1]: thread 0 writes LRegistry, then thread 1 reads it. *)
Lemma pinned_print_races :
  has_race (snd (run rloc_eqb [0; 0; 1]%nat (Build_config [pinned_print_prog unit; pinned_print_prog unit] (fun _ => SClobbered)))).
Proof.
  exists 1%nat, 2%nat, (0%nat, Wr LRegistry SClobbered), (1%nat, Rd LRegistry).
  split; [lia|]. split; [reflexivity|]. split; [reflexivity|].
  split; [cbn; discriminate|]. split; [reflexivity|]. left; reflexivity.
Qed.

(* a hypothetical render whose [set] lands on a caller's map (rr_shared_writes = [id]) races with any other render *)
Lemma shared_set_races :
  let p : rprog unit := Read LHeap (fun _ => write_ids unit [5] (Done (RRender unit None))) in
  has_race (snd (run rloc_eqb [0; 0; 1]%nat (Build_config [p; p] (fun _ => SClobbered)))).
Proof.
  exists 1%nat, 2%nat, (0%nat, Wr LHeap SClobbered), (1%nat, Rd LHeap).
  split; [lia|]. split; [reflexivity|]. split; [reflexivity|].
  split; [cbn; discriminate|]. split; [reflexivity|]. left; reflexivity.
Qed.
