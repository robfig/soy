(* C02, call names, part 3: tree.namespace is written once.  Every procedure of
   the command parser (Model/Parser.v), down to itemList and parse.SoyFile,
   leaves a non-empty namespace as it is -- only parseNamespace assigns it, and
   only while it is empty.  So after the {namespace} tag, every {call .x} and
   every {template .y} of the file is qualified with THAT namespace. *)
From Soy Require Import Model.Bytes Model.Values Model.Outcome Model.Ast Model.Token Generated.Tables Model.RawText
  Model.Parser Spec.CallNames Proofs.ScopeNames Proofs.ScopeParseShape.
Open Scope N_scope.

Definition ns_mono (s s' : cst) : Prop := c_ns s = [] \/ c_ns s' = c_ns s.
Definition mono {A} (s : cst) (r : cres A) : Prop :=
  match r with COk _ s' => ns_mono s s' | _ => True end.

Lemma ns_mono_refl s : ns_mono s s. Proof. right. reflexivity. Qed.
Lemma ns_mono_trans a c d : ns_mono a c -> ns_mono c d -> ns_mono a d.
Proof. intros [H|H] [K|K]; unfold ns_mono; try (left; assumption); [left; congruence | right; congruence]. Qed.

(* [r] may start from a state [s1] that [s] has reached *)
Lemma mono_from {A} s s1 (r : cres A) : mono s1 r -> ns_mono s s1 -> mono s r.
Proof. intros K H. destruct r; cbn; auto. exact (ns_mono_trans _ _ _ H K). Qed.
Lemma mono_bind_from {A B} s s0 (x : cres A) (f : A -> cst -> cres B) :
  mono s0 x -> ns_mono s s0 -> (forall a s1, mono s1 (f a s1)) -> mono s (cbind x f).
Proof.
  intros Hx H K. apply (mono_from s s0); [|exact H]. destruct x as [a s1| | |]; cbn [cbind mono]; auto.
  exact (mono_from s0 s1 _ (K a s1) Hx).
Qed.
Lemma mono_bind {A B} s (x : cres A) (f : A -> cst -> cres B) :
  mono s x -> (forall a s1, mono s1 (f a s1)) -> mono s (cbind x f).
Proof. intros Hx. exact (mono_bind_from s s x f Hx (ns_mono_refl s)). Qed.
Lemma mono_ok {A} (a : A) s s' : c_ns s' = c_ns s -> mono s (COk a s').
Proof. intros H. right. exact H. Qed.

(* the namespace half of ScopeParseShape's [nle] *)
Lemma stepr_mono {A} s (P : A -> stt -> Prop) (r : cres A) : stepr s P r -> mono s r.
Proof. destruct r; cbn; auto. intros [[H _] _]. exact H. Qed.
Lemma leaf_mono {A} s (r : cres A) : leaf s r -> mono s r.
Proof. apply stepr_mono. Qed.
Lemma keeps_mono {A} s (r : cres A) : keeps s r -> mono s r.
Proof. intros H. apply leaf_mono, leaf_keeps, H. Qed.

Section Mono.
Variable inlen : N.
Variable lexq : bstr -> list tok.
Variable unq : bstr -> option bstr.
Variable pexpr : nat -> N -> pst -> presult node.
Variable efuel : list tok -> nat.

(* the procedures below parseExpr and itemList: ScopeParseShape's walk does not depend on the expression parser there *)
#[local] Hint Resolve keeps_mono leaf_mono stepr_mono keeps_unexp keeps_errorf keeps_call_name
  leaf_next leaf_peek leaf_expect leaf_tail1 leaf_attrs leaf_autoescape leaf_bool_attr leaf_next_non_comment leaf_skip_comments
  leaf_text_run flat_soydoc leaf_dotted leaf_alias flat_namespace leaf_orphan : mono.

(* [mono] is compositional.  [mono_go] abbreviates the one fixed descent: at a bind, the first part is a call
   (closed from the hint base [mono] or the context, possibly from a backed-up state with the same namespace) or a
   case distinction, and the rest follows; at an if / match, every branch; at a leaf, the hint base.  The expression
   parser is ANY function here, which is why ScopeParseShape's walk cannot be used above parseExpr. *)
Ltac mono_leaf := solve [eauto 3 with mono nocore].
Ltac mono_go := repeat match goal with
  | |- mono _ (cbind (if _ then _ else _) _) => apply mono_bind; [|intros ? ?]
  | |- mono _ (cbind (match _ with _ => _ end) _) => apply mono_bind; [|intros ? ?]
  | |- mono _ (cbind _ _) => eapply mono_bind_from; [mono_leaf | right; reflexivity | intros ? ?]
  | |- mono _ (if ?c then _ else _) => destruct c
  | |- mono _ (match ?c with _ => _ end) => destruct c
  | |- _ => first [exact I | apply mono_ok; reflexivity | mono_leaf | eapply mono_from; [mono_leaf | right; reflexivity]]
  end.

Lemma mono_dotted f : forall name s, mono s (dotted_name f name s).
Proof. intros name s. apply leaf_mono, leaf_dotted. Qed.

Lemma mono_lift_expr f prec s : mono s (lift_expr inlen pexpr f prec s).
Proof. unfold lift_expr. mono_go. Qed.
Lemma mono_quoted str s : mono s (parse_quoted_expr inlen lexq pexpr efuel str s).
Proof. unfold parse_quoted_expr. mono_go. Qed.
#[local] Hint Resolve mono_quoted : mono.

(* {namespace a.b ...}: accepted only while no namespace is set; the node and tree.namespace get the same name *)
Theorem parse_namespace_sets f token s n s' :
  parse_namespace inlen unq f token s = COk n s' ->
  exists name ae, n = NNamespace (t_pos token) name ae /\ c_ns s' = name /\ c_ns s = [].
Proof.
  intros H. destruct (parse_namespace_inv inlen unq f token s n s' H) as (name & ae & H1 & H2 & H3 & _). exists name, ae. auto.
Qed.

Section Level.
Variable pe : N -> cst -> cres node.
Variable w : list N -> cst -> cres node.
Variable lf : nat.
Hypothesis Hpe : forall prec s, mono s (pe prec s).
Hypothesis Hw : forall u s, mono s (w u s).

Lemma mono_directive_args f : forall args s, mono s (directive_args pe f args s).
Proof. induction f as [|f IH]; intros args s; [exact I|]. cbn [directive_args]. mono_go. Qed.
#[local] Hint Resolve mono_directive_args : mono.
Lemma mono_print_loop f : forall pos e ds s, mono s (cmd_print_loop inlen pe lf f pos e ds s).
Proof. induction f as [|f IH]; intros pos e ds s; [exact I|]. cbn [cmd_print_loop]. mono_go. Qed.
#[local] Hint Resolve mono_print_loop : mono.
Lemma mono_print token s : mono s (cmd_print inlen pe lf token s).
Proof. unfold cmd_print. mono_go. Qed.
#[local] Hint Resolve mono_print : mono.
Lemma mono_let token s : mono s (parse_let inlen unq pe w lf token s).
Proof. unfold parse_let. mono_go. Qed.
#[local] Hint Resolve mono_let : mono.
Lemma mono_css token s : mono s (parse_css inlen lexq pexpr efuel token s).
Proof. unfold parse_css. mono_go. Qed.
#[local] Hint Resolve mono_css : mono.

Lemma mono_param_attr rec ps initial key0 s :
  (forall ps' s', mono s' (rec ps' s')) ->
  mono s (param_attr_form inlen lexq unq pexpr efuel w lf rec ps initial key0 s).
Proof. intros Hrec. unfold param_attr_form. mono_go. Qed.
#[local] Hint Resolve mono_param_attr : mono.
Lemma mono_call_params f : forall ps s, mono s (call_params_loop inlen lexq unq pexpr efuel pe w lf f ps s).
Proof.
  induction f as [|f IH]; intros ps s; [exact I|]. cbn [call_params_loop].
  mono_go.
Qed.
#[local] Hint Resolve mono_call_params : mono.
Lemma mono_call token s : mono s (parse_call inlen lexq unq pexpr efuel pe w lf token s).
Proof. unfold parse_call. mono_go. Qed.
#[local] Hint Resolve mono_call : mono.

Lemma mono_case f : forall token vs s, mono s (case_loop inlen pe w f token vs s).
Proof. induction f as [|f IH]; intros token vs s; [exact I|]. cbn [case_loop]. mono_go. Qed.
#[local] Hint Resolve mono_case : mono.
Lemma mono_switch_loop f : forall pos endt v cs s, mono s (switch_loop inlen pe w lf f pos endt v cs s).
Proof. induction f as [|f IH]; intros pos endt v cs s; [exact I|]. cbn [switch_loop]. mono_go. Qed.
#[local] Hint Resolve mono_switch_loop : mono.
Lemma mono_switch token endt s : mono s (parse_switch inlen pe w lf token endt s).
Proof. unfold parse_switch. mono_go. Qed.
#[local] Hint Resolve mono_switch : mono.
Lemma mono_plural_cases cs : forall cases d s, mono s (plural_cases inlen cs cases d s).
Proof. induction cs as [|c cs IH]; intros cases d s; cbn [plural_cases]; mono_go. Qed.
#[local] Hint Resolve mono_plural_cases : mono.
Lemma mono_plural tok s : mono s (parse_plural inlen pe w lf tok s).
Proof. unfold parse_plural. mono_go. Qed.
#[local] Hint Resolve mono_plural : mono.
Lemma mono_for token s : mono s (parse_for inlen pe w token s).
Proof. unfold parse_for. mono_go. Qed.
#[local] Hint Resolve mono_for : mono.
Lemma mono_if f : forall pos cs e s, mono s (if_loop inlen pe w f pos cs e s).
Proof. induction f as [|f IH]; intros pos cs e s; [exact I|]. cbn [if_loop]. mono_go. Qed.
#[local] Hint Resolve mono_if : mono.
Lemma mono_msg token s : mono s (parse_msg inlen unq w lf token s).
Proof. unfold parse_msg. mono_go. Qed.
#[local] Hint Resolve mono_msg : mono.
Lemma mono_template token s : mono s (parse_template inlen unq w lf token s).
Proof. unfold parse_template. mono_go. Qed.
#[local] Hint Resolve mono_template : mono.
Lemma mono_header_param token s : mono s (parse_header_param inlen pe token s).
Proof. unfold parse_header_param. mono_go. Qed.
#[local] Hint Resolve mono_header_param : mono.

Lemma mono_begin_tag s : mono s (begin_tag inlen lexq unq pexpr efuel pe w lf s).
Proof.
  unfold begin_tag, notmsg.
  mono_go.
Qed.
#[local] Hint Resolve mono_begin_tag : mono.
Lemma mono_text_or_tag t0 until s : mono s (text_or_tag inlen lexq unq pexpr efuel pe w lf t0 until s).
Proof. unfold text_or_tag. mono_go. Qed.
#[local] Hint Resolve mono_text_or_tag : mono.
Lemma mono_item_list_loop f : forall unt pos acc s,
  mono s (item_list_loop inlen lexq unq pexpr efuel pe w lf f unt pos acc s).
Proof. induction f as [|f IH]; intros unt pos acc s; [exact I|]. cbn [item_list_loop]. mono_go. Qed.
End Level.

Theorem item_list_ns_once fuel : forall unt s, mono s (item_list inlen lexq unq pexpr efuel fuel unt s).
Proof.
  induction fuel as [|f IH]; intros unt s; [exact I|]. cbn [item_list].
  apply mono_item_list_loop; [intros; apply mono_lift_expr | intros; apply IH].
Qed.

(* with that: a {template .x} whose START tag is read under the non-empty namespace ns is named ns.x,
   whatever its body contains *)
Theorem template_named_by_file_namespace fuel token s n s' :
  c_ns s <> [] ->
  parse_template inlen unq (item_list inlen lexq unq pexpr efuel fuel) fuel token s = COk n s' ->
  exists id body ae priv, n = NTemplate (t_pos token) (declared_name (c_ns s) (t_val id)) body ae priv /\ c_ns s' = c_ns s.
Proof.
  intros Hne H.
  pose proof (mono_template (item_list inlen lexq unq pexpr efuel fuel) fuel (item_list_ns_once fuel) token s) as Hm.
  rewrite H in Hm. destruct Hm as [Hm|Hm]; [contradiction|].
  destruct (parse_template_name inlen unq _ _ _ _ _ _ H) as (id & body & ae & priv & ->).
  exists id, body, ae, priv. rewrite Hm. split; reflexivity.
Qed.
End Mono.
