(* Float round trip, part 7: the float clause of LexPrintMain.lex_ok is a theorem -- the text the printer
   writes for a finite float in normal form has the shape the scanner's number rule reads as ONE float item
   (sign, digits, then a fraction or an exponent). *)
From Soy Require Import Model.Bytes Model.Num Model.Ast Model.AstPrint Proofs.MsgIdProofs Proofs.LexTokens Proofs.LexNumbers Proofs.LexPrintMain
  Proofs.FloatRtText Proofs.FloatRtMain Proofs.FloatRtPrint.
From Coq Require Import ZifyBool Lia.
Open Scope N_scope.

Lemma rt_digs_all_digits l : rt_digs l -> all_digits l.
Proof.
  intros H. unfold all_digits. induction H as [|c l Hc Hl IH]; constructor; [|exact IH].
  unfold is_digit_byte in Hc. unfold digit_b. lia.
Qed.

Lemma rt_no_lead_zero_single d : no_lead_zero [d].
Proof.
  unfold no_lead_zero. destruct d as [|p]; [exact Logic.I|].
  do 6 (try (destruct p as [p|p|]; try exact Logic.I)).
Qed.

Lemma rt_shape_float_txt s : rt_shape s -> float_txt_ok s.
Proof.
  intros (neg & ip & fp & hasexp & eneg & ex & -> & Hip & Hne & Hfp & Hex & Hx & Hf).
  exists neg, ip, (match fp with [] => None | _ => Some fp end),
    (if hasexp then Some ([if eneg then 45 else 43], ex) else None).
  split; [|split].
  - unfold rt_text, num_text, sign_text, rt_fpart, frac_text, rt_tail, exp_text.
    destruct fp; destruct hasexp; reflexivity.
  - unfold num_ok. split; [apply rt_digs_all_digits; exact Hip|]. split; [exact Hne|]. split.
    + destruct fp as [|f fp'].
      * destruct Hf as [Hf|(_ & d & ->)]; [congruence|apply rt_no_lead_zero_single].
      * split; [apply rt_digs_all_digits; exact Hfp|discriminate].
    + destruct hasexp; [|exact Logic.I]. split; [destruct eneg; unfold sign_ok; auto|].
      split; [apply rt_digs_all_digits; exact Hex|exact Hx].
  - unfold num_type. destruct fp as [|f fp']; [|reflexivity]. destruct Hf as [Hf|(-> & _)]; [congruence|reflexivity].
Qed.

Theorem fl_print_float_txt (f : fl) (s : bstr) : fl_finite_norm f -> fl_print f = Some s -> float_txt_ok s.
Proof. intros Hn Hs. apply rt_shape_float_txt. exact (fl_print_shape f s Hn Hs). Qed.

(* the float clause of lex_ok, for every float a well-formed tree can carry *)
Corollary lex_ok_float (p : N) (f : fl) : fl_finite_norm f -> lex_ok (NFloat p f).
Proof.
  intros Hn. cbn [lex_ok]. destruct (fl_print f) as [s|] eqn:E; [|exact Logic.I]. exact (fl_print_float_txt f s Hn E).
Qed.
