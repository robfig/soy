(* Consumption measure for the parser models (Appendix C, "Parser consumption").

   The parser sees a stream: the backed-up items, then the items not yet received, then zero
   items for ever.  [mu] = length of that stream up to its last item with a non-zero type (the
   parser never accepts an item of type 0, so what follows is dead); [lpz] = the logical
   position received - peekCount.  Facts proved here, for every operation of Model/Token.v:
     next     lpz + 1;  mu - 1 when the item has a non-zero type, else mu unchanged
     backup   (after a next) restores both exactly
     peek     changes neither
   and the invariant [pinv]: peekCount <= 2 (token[2] is never indexed), every item in the
   look-ahead slots or still to come is well-formed ([twf]), |items| <= received + pending,
   and (when [eofchk]) an EOF item is only ever the last one the scanner sends. *)
From Soy Require Import Model.Bytes Model.Ast Model.Token Model.NumLit Model.ExprParser.
From Soy Require Import Generated.Tables.
From Coq Require Import ZifyBool Lia.
Open Scope N_scope.

(* val[1:] / val[2:] of $x .x .1 ?.x ?.1 items; the position is a position of the input.
   (No condition on float items: Model/ExprParser.v is total on them.) *)
Definition twfb (inlen : N) (t : tok) : bool :=
  (t_pos t <=? inlen)
  && (if (t_typ t =? pit_DollarIdent) || (t_typ t =? pit_DotIdent) || (t_typ t =? pit_DotIndex)
      then (1 <=? length (t_val t))%nat else true)
  && (if (t_typ t =? pit_QuestionDotIdent) || (t_typ t =? pit_QuestionDotIndex)
      then (2 <=? length (t_val t))%nat else true).

(* an EOF item is the last item *)
Fixpoint eof_last (l : list tok) : Prop :=
  match l with
  | [] => True
  | t :: r => (t_typ t = pit_EOF -> r = []) /\ eof_last r
  end.

Fixpoint live (l : list tok) : nat :=
  match l with
  | [] => 0%nat
  | t :: r => match live r with
              | O => if t_typ t =? 0 then 0%nat else 1%nat
              | S k => S (S k)
              end
  end.

Lemma live_cons t l :
  (t_typ t <> 0 -> live (t :: l) = S (live l)) /\
  (live (t :: l) = live l \/ live (t :: l) = S (live l)) /\
  (live (t :: l) = live l -> t_typ t = 0 /\ live l = 0%nat).
Proof.
  cbn [live]. destruct (live l) as [|k].
  - destruct (N.eqb_spec (t_typ t) 0) as [E|E]; repeat split; intros; try tauto; try lia; auto.
  - repeat split; intros; try lia; auto.
Qed.

Lemma live_le_length l : (live l <= length l)%nat.
Proof.
  induction l as [|t r IH]; cbn [live length]; [lia|].
  destruct (live r); [destruct (t_typ t =? 0)|]; lia.
Qed.

(* an item whose type is one of two non-zero codes *)
Lemma eqb2_nz (x a b : N) : a <> 0 -> b <> 0 -> (x =? a) || (x =? b) = true -> x <> 0.
Proof. lia. Qed.
Ltac nzc := vm_compute; intro; discriminate.
(* branch on a disjunction of two such tests: in the first branch the type is not 0.  The equation does not stay in
   the context: every later [lia] would split on it. *)
Ltac tcase2 c Hnz := destruct c eqn:Hnz; [apply eqb2_nz in Hnz; [|nzc|nzc]|clear Hnz].
Ltac tnz H Hnz := match type of H with t_typ ?t = _ => assert (Hnz : t_typ t <> 0) by (rewrite H; nzc) end.

Definition stream (p : pst) : list tok :=
  match p_peek p with
  | O => p_rest p
  | S O => p_tok0 p :: p_rest p
  | _ => p_tok1 p :: p_tok0 p :: p_rest p
  end.
Definition mu (p : pst) : nat := live (stream p).
Definition lpz (p : pst) : Z := (Z.of_nat (p_recv p) - Z.of_nat (p_peek p))%Z.
Definition kap (p : pst) : Z := (lpz p + Z.of_nat (mu p))%Z.
(* the item the last next returned *)
Definition cur_tok (p : pst) : tok := tok_at p (p_peek p).

Lemma mu_init ts : (mu (pst_init ts) <= length ts)%nat.
Proof. unfold mu, stream, pst_init; cbn. apply live_le_length. Qed.
Lemma lpz_init ts : lpz (pst_init ts) = 0%Z.
Proof. reflexivity. Qed.

Section Measure.
Variable inlen : N.
Variable NT : nat.          (* number of items the scanner sends *)
Variable eofchk : bool.     (* track the EOF-is-last invariant *)

Definition twf (t : tok) : Prop := twfb inlen t = true.

Lemma twf_zero : twf zero_tok.
Proof.
  unfold twf, twfb, zero_tok; cbn [t_pos t_typ t_val].
  assert (E : (0 <=? inlen) = true) by lia. rewrite E. vm_compute. reflexivity.
Qed.

Lemma twf_pos t : twf t -> t_pos t <= inlen.
Proof. unfold twf, twfb. lia. Qed.

Record pinv (p : pst) : Prop := {
  pi_peek : (p_peek p <= 2)%nat;
  pi_rest : Forall twf (p_rest p);
  pi_t0 : twf (p_tok0 p);
  pi_t1 : twf (p_tok1 p);
  pi_cnt : (NT <= p_recv p + length (p_rest p))%nat;
  pi_eof : eofchk = true ->
           eof_last (p_rest p)
           /\ (t_typ (p_tok0 p) = pit_EOF -> p_rest p = [])
           /\ (t_typ (p_tok1 p) = pit_EOF -> p_rest p = []);
}.

Lemma pinv_init ts :
  Forall twf ts -> (NT <= length ts)%nat -> (eofchk = true -> eof_last ts) -> pinv (pst_init ts).
Proof.
  intros Hw Hn He. constructor; cbn; auto using twf_zero; try lia.
  intros E. split; [auto|]. split; intros H; vm_compute in H; discriminate.
Qed.

Lemma pinv_err_tok p : pinv p -> twf (err_tok p).
Proof.
  intros [? ? ? ? ? ?]. unfold err_tok, tok_at. destruct (p_peek p) as [|[|k]]; auto.
Qed.

Record nrel (p : pst) (t : tok) (p' : pst) : Prop := {
  nr_inv : pinv p';
  nr_twf : twf t;
  nr_peek : p_peek p' = Nat.pred (p_peek p);
  nr_peek1 : (p_peek p' <= 1)%nat;
  nr_cur : t = cur_tok p';
  nr_lpz : lpz p' = (lpz p + 1)%Z;
  nr_mu_nz : t_typ t <> 0 -> mu p = S (mu p');
  nr_mu : (mu p' <= mu p <= S (mu p'))%nat;
  nr_mu_z : mu p' = mu p -> t_typ t = 0;
  nr_bk_inv : pinv (p_backup p');
  nr_bk_mu : mu (p_backup p') = mu p;
  nr_bk_lpz : lpz (p_backup p') = lpz p;
  nr_eof : eofchk = true -> t_typ t = pit_EOF -> p_rest p' = [];
  nr_rest : p_rest p = [] -> p_rest p' = [];
}.

Ltac psimp := unfold mu, stream, lpz, cur_tok, tok_at, p_backup, p_backup2;
              cbn [p_rest p_tok0 p_tok1 p_peek p_recv fst snd Nat.pred].

Lemma p_next_rel p : pinv p -> nrel p (fst (p_next p)) (snd (p_next p)).
Proof.
  intros [Hpk Hr H0 H1 Hc He]. destruct p as [rest t0 t1 pk rc].
  cbn [p_rest p_tok0 p_tok1 p_peek p_recv] in *.
  unfold p_next; cbn [p_peek].
  destruct pk as [|[|[|pk]]]; [| | |lia].
  - (* a receive *)
    unfold recv; cbn [p_rest].
    destruct rest as [|t r]; cbn [fst snd p_rest p_tok0 p_tok1 p_peek p_recv]; cbn [length] in Hc.
    + assert (I1 : forall k, (k <= 2)%nat -> pinv {| p_rest := []; p_tok0 := zero_tok; p_tok1 := t1; p_peek := k; p_recv := S rc |}).
      { intros k Hk. constructor; cbn [p_rest p_tok0 p_tok1 p_peek p_recv length]; auto using twf_zero; try lia.
        intros E. destruct (He E) as (A & B & C). repeat split; auto. }
      constructor; psimp; auto using twf_zero; try lia.
      intros H; exfalso; apply H; reflexivity.
    + assert (Ht : twf t) by (inversion Hr; auto).
      assert (Hr' : Forall twf r) by (inversion Hr; auto).
      pose proof (live_cons t r) as (L1 & L2 & L3).
      assert (I1 : forall k, (k <= 2)%nat -> pinv {| p_rest := r; p_tok0 := t; p_tok1 := t1; p_peek := k; p_recv := S rc |}).
      { intros k Hk. constructor; cbn [p_rest p_tok0 p_tok1 p_peek p_recv length] in *; auto; try lia.
        intros E. destruct (He E) as ((A1 & A2) & B & C). repeat split; auto.
        intros X. apply C in X. discriminate. }
      constructor; psimp; auto; try lia.
      * intros E X. destruct (He E) as ((A1 & A2) & B & C). auto.
      * intros X; discriminate.
  - (* token[0] backed up *)
    cbn [fst snd tok_at p_peek p_tok0].
    pose proof (live_cons t0 rest) as (L1 & L2 & L3).
    assert (I1 : forall k, (k <= 2)%nat -> pinv {| p_rest := rest; p_tok0 := t0; p_tok1 := t1; p_peek := k; p_recv := rc |}).
    { intros k Hk. constructor; cbn [p_rest p_tok0 p_tok1 p_peek p_recv]; auto. }
    constructor; psimp; auto; try lia.
    intros E X. destruct (He E) as (A & B & C). auto.
  - (* token[1] backed up *)
    cbn [fst snd tok_at p_peek p_tok0 p_tok1].
    pose proof (live_cons t1 (t0 :: rest)) as (L1 & L2 & L3).
    assert (I1 : forall k, (k <= 2)%nat -> pinv {| p_rest := rest; p_tok0 := t0; p_tok1 := t1; p_peek := k; p_recv := rc |}).
    { intros k Hk. constructor; cbn [p_rest p_tok0 p_tok1 p_peek p_recv]; auto. }
    constructor; psimp; auto; try lia.
    intros E X. destruct (He E) as (A & B & C). auto.
Qed.

(* a next after a backup returns the same item and restores the state *)
Lemma p_next_backup p : (p_peek p <= 1)%nat -> p_next (p_backup p) = (cur_tok p, p).
Proof.
  destruct p as [rest t0 t1 pk rc]; cbn. intros H.
  unfold p_next, p_backup, cur_tok, tok_at; cbn. destruct pk as [|[|pk]]; try lia; reflexivity.
Qed.

(* backing up over an item of non-zero type (state-based form) *)
Lemma p_backup_rel p :
  pinv p -> (p_peek p <= 1)%nat -> t_typ (cur_tok p) <> 0 ->
  pinv (p_backup p) /\ mu (p_backup p) = S (mu p) /\ lpz (p_backup p) = (lpz p - 1)%Z.
Proof.
  intros [Hpk Hr H0 H1 Hc He] Hk Hz. destruct p as [rest t0 t1 pk rc]; cbn in *.
  unfold cur_tok, tok_at in Hz; cbn in Hz.
  split; [constructor; cbn; auto; lia|].
  unfold mu, stream, lpz, p_backup; cbn [p_rest p_tok0 p_tok1 p_peek p_recv].
  destruct pk as [|[|pk]]; try lia.
  - pose proof (live_cons t0 rest) as (L1 & _). split; [auto|lia].
  - pose proof (live_cons t1 (t0 :: rest)) as (L1 & _). split; [auto|lia].
Qed.

(* backup2(t1) after two nexts: t1 is the item the first of them returned *)
Lemma p_backup2_rel p t p' t1 :
  pinv p -> (p_peek p <= 1)%nat -> t1 = cur_tok p -> t_typ t1 <> 0 -> t_typ t1 <> pit_EOF -> twf t1 ->
  nrel p t p' ->
  pinv (p_backup2 p' t1) /\ mu (p_backup2 p' t1) = S (mu p) /\ lpz (p_backup2 p' t1) = (lpz p - 1)%Z.
Proof.
  intros Hp Hk Ht1 Hz Hne Hw R.
  destruct R as [Ri _ Rpk _ Rcur Rl _ _ _ _ Rbm _ _ _].
  assert (Hpk' : p_peek p' = 0%nat) by lia.
  destruct Ri as [Jpk Jr J0 J1 Jc Je].
  split.
  - constructor; cbn; auto; try lia.
    intros E. destruct (Je E) as (A & B & C). repeat split; auto. intros X; contradiction.
  - unfold mu, stream, lpz, p_backup2 in *; cbn [p_rest p_tok0 p_tok1 p_peek p_recv] in *.
    unfold p_backup in Rbm; cbn [p_rest p_tok0 p_tok1 p_peek p_recv] in Rbm.
    rewrite Hpk' in *.
    pose proof (live_cons t1 (p_tok0 p' :: p_rest p')) as (L1 & _).
    split; [rewrite L1 by auto; f_equal; exact Rbm|lia].
Qed.

Record krel (p : pst) (t : tok) (p' : pst) : Prop := {
  kr_inv : pinv p';
  kr_peek : (1 <= p_peek p' <= 2)%nat;
  kr_lpz : lpz p' = lpz p;
  kr_mu : mu p' = mu p;
  kr_next : p_next p' = (t, snd (p_next p'));
  kr_rest : p_rest p = [] -> p_rest p' = [];
}.
Lemma p_peek_rel p : pinv p -> krel p (fst (p_peek_tok p)) (snd (p_peek_tok p)).
Proof.
  intros [Hpk Hr H0 H1 Hc He]. destruct p as [rest t0 t1 pk rc].
  cbn [p_rest p_tok0 p_tok1 p_peek p_recv] in *.
  unfold p_peek_tok; cbn [p_peek].
  destruct pk as [|[|[|pk]]]; [| | |lia].
  - unfold recv; cbn [p_rest]. destruct rest as [|t r]; cbn [fst snd p_rest p_tok0 p_tok1 p_peek p_recv]; cbn [length] in Hc.
    + constructor; unfold p_next; psimp; auto; try lia.
      constructor; cbn [p_rest p_tok0 p_tok1 p_peek p_recv length]; auto using twf_zero; try lia.
      intros E. destruct (He E) as (A & B & C). repeat split; auto.
    + assert (Ht : twf t) by (inversion Hr; auto).
      assert (Hr' : Forall twf r) by (inversion Hr; auto).
      constructor; unfold p_next; psimp; auto; try lia.
      * constructor; cbn [p_rest p_tok0 p_tok1 p_peek p_recv length]; auto; try lia.
        intros E. destruct (He E) as ((A1 & A2) & B & C). repeat split; auto.
        intros X. apply C in X. discriminate.
      * intros X; discriminate.
  - cbn [fst snd tok_at]. constructor; unfold p_next; psimp; auto; try lia.
    constructor; cbn [p_rest p_tok0 p_tok1 p_peek p_recv]; auto.
  - cbn [fst snd tok_at]. constructor; unfold p_next; psimp; auto; try lia.
    constructor; cbn [p_rest p_tok0 p_tok1 p_peek p_recv]; auto.
Qed.

(* [b] is the conserved quantity kap at procedure entry: on a normal return every item consumed
   had a non-zero type (kap unchanged); on an error at most two items beyond that were read *)
Definition ppost {A} (b : Z) (Q : A -> pst -> Prop) (r : presult A) : Prop :=
  match r with
  | POk a p' => pinv p' /\ kap p' = b /\ Q a p'
  | PErr t c p' => pinv p' /\ (lpz p' <= b + 2)%Z /\ twf t
  | PCrash _ => False
  | PFuel => False
  end.

Lemma ppost_bind {A B} b (Q1 : A -> pst -> Prop) (Q : B -> pst -> Prop) x f :
  ppost b Q1 x ->
  (forall a p', pinv p' -> kap p' = b -> Q1 a p' -> ppost b Q (f a p')) ->
  ppost b Q (pbind x f).
Proof.
  destruct x as [a p'|t c p'|m|]; cbn; intros H K; auto. destruct H as (H1 & H2 & H3). apply K; auto.
Qed.

Lemma ppost_weaken {A} b (Q1 Q : A -> pst -> Prop) r :
  ppost b Q1 r -> (forall a p', pinv p' -> kap p' = b -> Q1 a p' -> Q a p') -> ppost b Q r.
Proof. destruct r; cbn; intros H K; auto. destruct H as (H1 & H2 & H3). auto. Qed.

Lemma ppost_errorf {A} b (Q : A -> pst -> Prop) c p :
  pinv p -> (lpz p <= b + 2)%Z -> ppost b Q (p_errorf c p).
Proof. intros H L. unfold p_errorf; cbn. auto using pinv_err_tok. Qed.

Lemma ppost_unexpected {A} b (Q : A -> pst -> Prop) t p :
  pinv p -> twf t -> (lpz p <= b + 2)%Z -> ppost b Q (p_unexpected t p).
Proof. intros H W L. unfold p_unexpected. destruct (_ =? _); cbn; auto. Qed.

End Measure.
