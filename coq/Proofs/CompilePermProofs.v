(* C13: the insertion order of the files.  When Registry.Add and the loop of Bundle.Compile
   succeed and what they build; accepted bundles give the same result under every permutation
   of the files; for rejected bundles the reported error is one of the bundle's independent
   errors, and that set does not depend on the order. *)
From Coq Require Import Permutation.
From Soy Require Import Model.Bytes Model.Num Model.Values Model.Outcome Model.Ast Model.MsgId Model.Compile
  Generated.Tables Spec.Determinism Proofs.ValueProofs Proofs.CompileProofs.
From Soy Require Export Proofs.BytesBase.
Open Scope N_scope.

Lemma NoDup_app_iff {A} (l1 l2 : list A) :
  NoDup (l1 ++ l2) <-> NoDup l1 /\ NoDup l2 /\ (forall x, In x l1 -> ~ In x l2).
Proof.
  induction l1 as [|a l1 IH]; cbn [app].
  - split; [intros H; repeat split; [constructor | exact H | intros x []] | intros (_ & H & _); exact H].
  - split.
    + intros H. inversion H as [|? ? Hn Hd]; subst. apply IH in Hd. destruct Hd as (H1 & H2 & H3).
      repeat split; [constructor; [intros Hi; apply Hn, in_or_app; left; exact Hi | exact H1] | exact H2 |].
      intros x [<-|Hx]; [intros Hi; apply Hn, in_or_app; right; exact Hi | apply H3, Hx].
    + intros (H1 & H2 & H3). inversion H1 as [|? ? Hn Hd]; subst. constructor.
      * intros Hi. apply in_app_or in Hi. destruct Hi as [Hi|Hi]; [contradiction | apply (H3 a (or_introl eq_refl) Hi)].
      * apply IH. repeat split; [exact Hd | exact H2 | intros x Hx; apply H3; right; exact Hx].
Qed.

Lemma assoc_s_None {A} k (l : list (bstr * A)) : assoc_s k l = None <-> ~ In k (map fst l).
Proof.
  induction l as [|[k' v] r IH]; cbn [assoc_s map fst In]; [split; [intros _ [] | reflexivity]|].
  destruct (bstr_eqb_spec k k') as [->|E].
  - split; [discriminate | intros H; exfalso; apply H; left; reflexivity].
  - rewrite IH. split; [intros H [Hk|Hk]; [congruence | contradiction] | intros H Hk; apply H; right; exact Hk].
Qed.

Lemma assoc_s_Some_In {A} k (v : A) l : assoc_s k l = Some v -> In (k, v) l.
Proof.
  induction l as [|[k' v'] r IH]; cbn [assoc_s]; [discriminate|].
  destruct (bstr_eqb_spec k k') as [->|E].
  - intros [= ->]. left. reflexivity.
  - intros H. right. apply IH, H.
Qed.

Lemma assoc_s_In_NoDup {A} k (v : A) l : NoDup (map fst l) -> In (k, v) l -> assoc_s k l = Some v.
Proof.
  induction l as [|[k' v'] r IH]; cbn [map fst assoc_s]; intros Hnd Hin; [destruct Hin|].
  inversion Hnd as [|? ? Hn Hd]; subst. destruct Hin as [[= -> ->]|Hin].
  - rewrite bstr_eqb_refl. reflexivity.
  - destruct (bstr_eqb_spec k k') as [->|E]; [|apply IH; assumption].
    exfalso. apply Hn. apply (in_map fst) in Hin. exact Hin.
Qed.

Lemma assoc_s_perm {A} (l l' : list (bstr * A)) k : NoDup (map fst l) -> Permutation l l' -> assoc_s k l = assoc_s k l'.
Proof.
  intros Hnd Hp.
  assert (Hnd' : NoDup (map fst l')) by (eapply Permutation_NoDup; [apply Permutation_map, Hp | exact Hnd]).
  destruct (assoc_s k l) as [v|] eqn:E.
  - symmetry. apply assoc_s_In_NoDup; [exact Hnd'|]. eapply Permutation_in; [exact Hp | apply assoc_s_Some_In, E].
  - symmetry. apply assoc_s_None. apply assoc_s_None in E. intros Hi. apply E.
    eapply Permutation_in; [apply Permutation_sym, Permutation_map, Hp | exact Hi].
Qed.

Lemma put_fresh {A} (m : list (bstr * A)) k v : assoc_s k m = None -> put m k v = m ++ [(k, v)].
Proof.
  induction m as [|[k' v'] r IH]; cbn [put assoc_s app]; [reflexivity|].
  destruct (bstr_eqb k k'); [discriminate|]. intros H. rewrite IH; [reflexivity | exact H].
Qed.

Lemma put_keys {A B} (m : list (bstr * A)) (m' : list (bstr * B)) k v v' :
  map fst m = map fst m' -> map fst (put m k v) = map fst (put m' k v').
Proof.
  revert m'. induction m as [|[k1 v1] r IH]; intros [|[k2 v2] r'] H; cbn [map fst] in H; try discriminate; cbn [put map fst]; [reflexivity|].
  injection H as -> Hr. destruct (bstr_eqb k k2); cbn [map fst]; [congruence | f_equal; apply IH, Hr].
Qed.

Definition template_entry (t : template) : bstr * template := (t_name t, t).
Lemma find_template_assoc ts name : find_template ts name = assoc_s name (map template_entry ts).
Proof.
  induction ts as [|t r IH]; cbn [find_template map assoc_s template_entry]; [reflexivity|].
  rewrite bstr_eqb_sym. destruct (bstr_eqb name (t_name t)); [reflexivity | exact IH].
Qed.
Lemma map_fst_entries ts : map fst (map template_entry ts) = map t_name ts.
Proof. rewrite map_map. reflexivity. Qed.

(* Registry.Template does not depend on the order of Templates when the names are unique *)
Lemma find_template_perm ts ts' name :
  NoDup (map t_name ts) -> Permutation ts ts' -> find_template ts name = find_template ts' name.
Proof.
  intros Hnd Hp. rewrite !find_template_assoc. apply assoc_s_perm; [rewrite map_fst_entries; exact Hnd | apply Permutation_map, Hp].
Qed.

Lemma two_occurrences {X} (l l1 l2 l3 : list X) a c :
  l = l1 ++ a :: l2 ++ c :: l3 -> Permutation l (a :: c :: (l1 ++ l2) ++ l3).
Proof.
  intros ->. eapply Permutation_trans; [apply Permutation_sym, Permutation_middle|]. constructor.
  rewrite app_assoc. apply Permutation_sym, Permutation_middle.
Qed.

Fixpoint units_ok (us : list (add_err + tmpl_unit)) : option (list tmpl_unit) :=
  match us with
  | [] => Some []
  | inr u :: r => match units_ok r with Some l => Some (u :: l) | None => None end
  | inl _ :: _ => None
  end.

Definition name_file (t : template) : bstr * bstr := (t_name t, t_file t).
Definition reg_extend (reg : registry) (text : bstr) (ts : list template) : registry :=
  {| r_templates := r_templates reg ++ ts;
     r_sources := r_sources reg ++ map (fun t => (t_name t, text)) ts;
     r_files := r_files reg ++ map name_file ts |}.

Definition reg_inv (reg : registry) : Prop := map fst (r_sources reg) = map fst (r_files reg).

Lemma reg_inv_empty : reg_inv (cr_reg empty_creg).
Proof. reflexivity. Qed.

Lemma reg_extend_nil reg text : reg_extend reg text [] = reg.
Proof. destruct reg. unfold reg_extend. cbn. rewrite !app_nil_r. reflexivity. Qed.

Lemma reg_inv_extend reg text ts : reg_inv reg -> reg_inv (reg_extend reg text ts).
Proof. unfold reg_inv, reg_extend. cbn. intros H. rewrite !map_app, H, !map_map. reflexivity. Qed.

Lemma reg_append_fresh reg t text : reg_inv reg -> assoc_s (t_name t) (r_files reg) = None ->
  reg_append reg t text = reg_extend reg text [t].
Proof.
  intros Hinv Hf. unfold reg_append, reg_extend. cbn [map]. f_equal.
  - apply put_fresh. apply assoc_s_None. rewrite Hinv. apply assoc_s_None, Hf.
  - apply put_fresh, Hf.
Qed.

Lemma reg_extend_extend reg text ts1 ts2 : reg_extend (reg_extend reg text ts1) text ts2 = reg_extend reg text (ts1 ++ ts2).
Proof. unfold reg_extend. cbn. rewrite !map_app, !app_assoc. reflexivity. Qed.

Definition unit_name (u : tmpl_unit) : bstr := t_name (tu_template u).

Lemma unit_names_ok us l : units_ok us = Some l -> unit_names us = map unit_name l.
Proof.
  revert l. induction us as [|[e|u] r IH]; cbn [units_ok unit_names flat_map]; intros l H; [injection H as <-; reflexivity | discriminate |].
  destruct (units_ok r) as [l'|]; [|discriminate]. injection H as <-. cbn [map app]. f_equal. apply IH. reflexivity.
Qed.

Lemma name_file_keys ts : map fst (map name_file ts) = map t_name ts.
Proof. rewrite map_map. reflexivity. Qed.

Definition fresh_in (reg : registry) (ns : list bstr) : Prop :=
  NoDup ns /\ forall n, In n ns -> assoc_s n (r_files reg) = None.

Lemma fresh_in_app reg tx ts ns :
  fresh_in reg (map t_name ts ++ ns) <-> fresh_in reg (map t_name ts) /\ fresh_in (reg_extend reg tx ts) ns.
Proof.
  assert (He : forall n, assoc_s n (r_files (reg_extend reg tx ts)) = None <->
                         assoc_s n (r_files reg) = None /\ ~ In n (map t_name ts)).
  { intros n. unfold reg_extend. cbn [r_files]. rewrite assoc_s_app.
    destruct (assoc_s n (r_files reg)); [split; [discriminate | intros [H _]; discriminate]|].
    rewrite assoc_s_None, name_file_keys. tauto. }
  unfold fresh_in. rewrite NoDup_app_iff. split.
  - intros ((H1 & H2 & H3) & Hf). repeat split; auto using in_or_app.
    intros n Hn. apply He. split; [auto using in_or_app|]. intros Hi. exact (H3 n Hi Hn).
  - intros ((H1 & Hf1) & (H2 & Hf2)). repeat split; auto.
    + intros n Hn1 Hn2. apply (proj2 (proj1 (He n) (Hf2 n Hn2))), Hn1.
    + intros n Hn. apply in_app_or in Hn as [Hn|Hn]; [auto | apply (He n), Hf2, Hn].
Qed.

(* success of the loop over the templates of one file *)
Lemma add_units_ok fn tx us : forall reg reg', reg_inv reg ->
  (add_units fn tx us reg = inr reg' <->
   exists l, units_ok us = Some l /\ fresh_in reg (map unit_name l) /\ reg' = reg_extend reg tx (map tu_template l)).
Proof.
  induction us as [|[e|u] r IH]; intros reg reg' Hinv; cbn [add_units units_ok].
  - split.
    + intros [= <-]. exists []. repeat split; [constructor | intros n [] | symmetry; apply reg_extend_nil].
    + intros (l & [= <-] & _ & ->). rewrite reg_extend_nil. reflexivity.
  - split; [discriminate | intros (l & H & _); discriminate].
  - destruct (assoc_s (t_name (tu_template u)) (r_files reg)) as [other|] eqn:Ef.
    + split; [discriminate|]. intros (l & Hl & [_ Hfresh] & _).
      destruct (units_ok r) as [l'|]; [|discriminate]. injection Hl as <-.
      pose proof (Hfresh _ (or_introl eq_refl)) as H0. unfold unit_name in H0. congruence.
    + rewrite (reg_append_fresh reg _ tx Hinv Ef), (IH _ reg' (reg_inv_extend reg tx _ Hinv)).
      assert (H1 : fresh_in reg (map t_name [tu_template u])).
      { split; [repeat constructor; intros [] | intros n [<-|[]]; exact Ef]. }
      split; intros (l & Hl & Hf & ->).
      * exists (u :: l). rewrite Hl, reg_extend_extend. split; [reflexivity|]. split; [|reflexivity].
        apply (fresh_in_app reg tx [tu_template u] (map unit_name l)). split; assumption.
      * destruct (units_ok r) as [l'|]; [|discriminate]. injection Hl as <-. exists l'.
        apply (fresh_in_app reg tx [tu_template u] (map unit_name l')) in Hf as [_ Hf].
        rewrite reg_extend_extend. split; [reflexivity|]. split; [exact Hf | reflexivity].
Qed.

(* what a file contributes when its own processing succeeds *)
Definition file_result (f : sfile) : option (list template * sfile) :=
  match find_namespace (sfile_body f) with
  | inl _ => None
  | inr (ns, ae) =>
      match units_ok (file_units (sfile_name f) ns ae None (sfile_body f)) with
      | Some l => Some (map tu_template l,
                        {| sfile_name := sfile_name f; sfile_text := sfile_text f; sfile_body := processed_body (sfile_name f) ns ae None (sfile_body f) |})
      | None => None
      end
  end.
Definition file_ts (f : sfile) : list template := match file_result f with Some (ts, _) => ts | None => [] end.
Definition file_pf (f : sfile) : sfile := match file_result f with Some (_, pf) => pf | None => f end.

Lemma file_defines_ok f ts pf : file_result f = Some (ts, pf) -> file_defines f = map t_name ts.
Proof.
  unfold file_result, file_defines. destruct (find_namespace (sfile_body f)) as [e|[ns ae]]; [discriminate|].
  destruct (units_ok _) as [l|] eqn:E; [|discriminate]. intros [= <- _]. rewrite (unit_names_ok _ _ E), map_map. reflexivity.
Qed.

Lemma registry_add_ok r f r' : reg_inv (cr_reg r) ->
  (registry_add r f = inr r' <->
   exists ts pf, file_result f = Some (ts, pf) /\ NoDup (map t_name ts) /\
                 (forall n, In n (map t_name ts) -> assoc_s n (r_files (cr_reg r)) = None) /\
                 r' = {| cr_soyfiles := cr_soyfiles r ++ [pf]; cr_reg := reg_extend (cr_reg r) (sfile_text f) ts |}).
Proof.
  intros Hinv. unfold registry_add, file_result.
  destruct (find_namespace (sfile_body f)) as [e|[ns ae]]; [split; [discriminate | intros (ts & pf & H & _); discriminate]|].
  destruct (add_units _ _ _ _) as [e|reg'] eqn:Ea.
  - split; [discriminate|]. intros (ts & pf & Hr & Hnd & Hfresh & _).
    destruct (units_ok _) as [l|] eqn:El; [|discriminate]. injection Hr as <- _.
    assert (H : add_units (sfile_name f) (sfile_text f) (file_units (sfile_name f) ns ae None (sfile_body f)) (cr_reg r) = inr (reg_extend (cr_reg r) (sfile_text f) (map tu_template l))).
    { apply add_units_ok; [exact Hinv|]. exists l. rewrite map_map in Hnd, Hfresh. repeat split; assumption. }
    congruence.
  - apply add_units_ok in Ea; [|exact Hinv]. destruct Ea as (l & El & [Hnd Hfresh] & ->). rewrite El. split.
    + intros [= <-]. eexists _, _. split; [reflexivity|]. rewrite map_map. repeat split; assumption.
    + intros (ts & pf & [= <- <-] & _ & _ & ->). reflexivity.
Qed.

Definition all_ts (fs : list sfile) : list template := flat_map file_ts fs.
Definition all_sources (fs : list sfile) : list (bstr * bstr) :=
  flat_map (fun f => map (fun t => (t_name t, sfile_text f)) (file_ts f)) fs.

Definition big_extend (r : creg) (fs : list sfile) : creg :=
  {| cr_soyfiles := cr_soyfiles r ++ map file_pf fs;
     cr_reg := {| r_templates := r_templates (cr_reg r) ++ all_ts fs;
                  r_sources := r_sources (cr_reg r) ++ all_sources fs;
                  r_files := r_files (cr_reg r) ++ map name_file (all_ts fs) |} |}.

Definition files_ok (r : creg) (fs : list sfile) : Prop :=
  Forall (fun f => file_result f <> None) fs /\ fresh_in (cr_reg r) (map t_name (all_ts fs)).

Lemma big_extend_nil r : big_extend r [] = r.
Proof. destruct r as [sf [a c d]]. unfold big_extend. cbn. rewrite !app_nil_r. reflexivity. Qed.

Lemma add_files_ok fs : forall r r', reg_inv (cr_reg r) ->
  (add_all_files r (map SrcOk fs) = COk r' <-> files_ok r fs /\ r' = big_extend r fs).
Proof.
  induction fs as [|f rest IH]; intros r r' Hinv; cbn [map add_all_files].
  - rewrite big_extend_nil. split.
    + intros [= <-]. repeat split; [constructor | constructor | intros n []].
    + intros (_ & ->). reflexivity.
  - assert (Hsplit : forall ts pf, file_result f = Some (ts, pf) ->
              (files_ok r (f :: rest) <->
               fresh_in (cr_reg r) (map t_name ts) /\
               files_ok {| cr_soyfiles := cr_soyfiles r ++ [pf]; cr_reg := reg_extend (cr_reg r) (sfile_text f) ts |} rest)).
    { intros ts pf Er. unfold files_ok, all_ts. cbn [flat_map cr_reg]. unfold file_ts at 1. rewrite Er, map_app, (fresh_in_app _ (sfile_text f)).
      split; [intros (Hall & H1 & H2); inversion Hall; auto | intros (H1 & Hall & H2)].
      split; [constructor; [congruence | exact Hall] | split; assumption]. }
    destruct (registry_add r f) as [e|r1] eqn:Ea.
    + split; [discriminate|]. intros (Hok & _). exfalso.
      destruct (file_result f) as [[ts pf]|] eqn:Er; [|destruct Hok as [Hall _]; inversion Hall; congruence].
      apply (Hsplit ts pf eq_refl) in Hok as [[Hnd Hfresh] _].
      assert (H : registry_add r f = inr {| cr_soyfiles := cr_soyfiles r ++ [pf]; cr_reg := reg_extend (cr_reg r) (sfile_text f) ts |})
        by (apply registry_add_ok; [exact Hinv|]; exists ts, pf; repeat split; assumption).
      congruence.
    + apply registry_add_ok in Ea; [|exact Hinv]. destruct Ea as (ts & pf & Er & Hnd1 & Hfresh1 & ->).
      rewrite IH, (Hsplit ts pf Er); [|apply reg_inv_extend, Hinv].
      assert (Hbig : big_extend {| cr_soyfiles := cr_soyfiles r ++ [pf]; cr_reg := reg_extend (cr_reg r) (sfile_text f) ts |} rest = big_extend r (f :: rest)).
      { unfold big_extend, reg_extend, all_ts, all_sources, file_ts, file_pf. cbn [cr_soyfiles cr_reg r_templates r_sources r_files flat_map map].
        rewrite Er, !map_app, <- !app_assoc. reflexivity. }
      rewrite Hbig. unfold fresh_in. tauto.
Qed.

Lemma add_files_parsed srcs : forall r r', add_all_files r srcs = COk r' -> exists fs, srcs = map SrcOk fs.
Proof.
  induction srcs as [|[f|n m] rest IH]; intros r r' H; cbn [add_all_files] in H; [exists []; reflexivity | | discriminate].
  destruct (registry_add r f) as [e|r1]; [discriminate|]. destruct (IH _ _ H) as (fs & ->). exists (f :: fs). reflexivity.
Qed.

Lemma first_failure_None {E} (f : template -> option E) ts :
  first_failure f ts = None <-> Forall (fun t => f t = None) ts.
Proof.
  induction ts as [|t r IH]; cbn [first_failure]; [split; [constructor | reflexivity]|].
  destruct (f t) eqn:Ef.
  - split; [discriminate | intros H; inversion H; congruence].
  - rewrite IH. split; [intros H; constructor; assumption | intros H; inversion H; assumption].
Qed.

Lemma first_failure_Some {E} (f : template -> option E) ts name e :
  first_failure f ts = Some (name, e) -> exists t, In t ts /\ t_name t = name /\ f t = Some e.
Proof.
  induction ts as [|t r IH]; cbn [first_failure]; [discriminate|].
  destruct (f t) eqn:Ef.
  - intros [= <- <-]. exists t. repeat split; [left; reflexivity | exact Ef].
  - intros H. destruct (IH H) as (t' & Hi & Hn & He). exists t'. repeat split; [right; exact Hi | exact Hn | exact He].
Qed.

Lemma all_ts_perm fs fs' : Permutation fs fs' -> Permutation (all_ts fs) (all_ts fs').
Proof. intros H. unfold all_ts. apply Permutation_flat_map, H. Qed.
Lemma all_sources_perm fs fs' : Permutation fs fs' -> Permutation (all_sources fs) (all_sources fs').
Proof. intros H. unfold all_sources. apply Permutation_flat_map, H. Qed.

Lemma all_sources_keys fs : map fst (all_sources fs) = map t_name (all_ts fs).
Proof.
  unfold all_sources, all_ts. induction fs as [|f r IH]; cbn [flat_map map]; [reflexivity|].
  rewrite !map_app, IH, map_map. reflexivity.
Qed.

Lemma files_ok_perm fs fs' : Permutation fs fs' -> files_ok empty_creg fs -> files_ok empty_creg fs'.
Proof.
  intros Hp (Hall & Hnd & _). repeat split.
  - eapply Permutation_Forall; [exact Hp | exact Hall].
  - eapply Permutation_NoDup; [apply Permutation_map, all_ts_perm, Hp | exact Hnd].
Qed.

Lemma add_files_perm srcs srcs' r : Permutation srcs srcs' -> add_all_files empty_creg srcs = COk r ->
  exists fs fs', srcs = map SrcOk fs /\ srcs' = map SrcOk fs' /\ Permutation fs fs' /\ files_ok empty_creg fs /\
                 r = big_extend empty_creg fs /\ add_all_files empty_creg srcs' = COk (big_extend empty_creg fs').
Proof.
  intros Hp Ha. destruct (add_files_parsed _ _ _ Ha) as (fs & ->).
  apply Permutation_sym in Hp. destruct (Permutation_map_inv _ _ Hp) as (fs' & -> & Hp').
  apply add_files_ok in Ha; [|apply reg_inv_empty]. destruct Ha as (Hok & ->).
  exists fs, fs'. split; [reflexivity|]. split; [reflexivity|]. split; [exact Hp'|]. split; [exact Hok|]. split; [reflexivity|].
  apply add_files_ok; [apply reg_inv_empty|]. split; [eapply files_ok_perm; eassumption | reflexivity].
Qed.

Lemma big_extend_templates fs : r_templates (cr_reg (big_extend empty_creg fs)) = all_ts fs.
Proof. reflexivity. Qed.

Lemma check_phase_perm ko ts ts' :
  NoDup (map t_name ts) -> Permutation ts ts' ->
  forall t, check_template ko (find_template ts) t = check_template ko (find_template ts') t.
Proof.
  intros Hnd Hp t. apply check_template_ext; [intros l; reflexivity|]. intros n. apply find_template_perm; assumption.
Qed.

Theorem compile_gen_accept_perm ns o calls srcs srcs' c :
  Permutation srcs srcs' -> compile_gen ns o calls srcs = COk c ->
  exists c', compile_gen ns o calls srcs' = COk c' /\ same_result c c'.
Proof.
  intros Hp Hc. unfold compile_gen in *.
  destruct (bg_err (bundle_of_globals (o_globals o) calls)) as [[gn gv]|]; [discriminate|].
  destruct (add_all_files empty_creg srcs) as [r|e] eqn:Ea; [|discriminate].
  destruct (add_files_perm _ _ _ Hp Ea) as (fs & fs' & -> & -> & Hpf & (Hall & Hnd & _) & -> & Ea').
  rewrite Ea'. rewrite big_extend_templates in *.
  pose proof (all_ts_perm _ _ Hpf) as Hpt.
  destruct (first_failure (check_template (o_children o) (find_template (all_ts fs))) (all_ts fs)) as [[n1 e1]|] eqn:Ec; [discriminate|].
  destruct (first_failure (set_globals_template (o_children o) (bg_map (bundle_of_globals (o_globals o) calls))) (all_ts fs)) as [[n2 e2]|] eqn:Eg; [discriminate|].
  injection Hc as <-.
  assert (Ec' : first_failure (check_template (o_children o) (find_template (all_ts fs'))) (all_ts fs') = None).
  { apply first_failure_None. apply first_failure_None in Ec.
    eapply Permutation_Forall; [exact Hpt|]. eapply Forall_impl; [|exact Ec]. cbn. intros t Ht.
    rewrite <- (check_phase_perm _ _ _ Hnd Hpt). exact Ht. }
  assert (Eg' : first_failure (set_globals_template (o_children o) (bg_map (bundle_of_globals (o_globals o) calls))) (all_ts fs') = None).
  { apply first_failure_None. apply first_failure_None in Eg. eapply Permutation_Forall; [exact Hpt | exact Eg]. }
  rewrite Ec', Eg'. eexists. split; [reflexivity|].
  constructor; cbn [cp_reg cp_soyfiles cp_globals cp_msgs big_extend cr_reg cr_soyfiles r_templates r_files r_sources empty_creg app].
  - intros name. apply find_template_perm; assumption.
  - intros name. apply assoc_s_perm; [rewrite name_file_keys; exact Hnd | apply Permutation_map, Hpt].
  - intros name. apply assoc_s_perm; [rewrite all_sources_keys; exact Hnd | apply all_sources_perm, Hpf].
  - apply Permutation_map, Hpf.
  - reflexivity.
  - intros name. apply assoc_s_perm; [rewrite map_map; exact Hnd | apply Permutation_map, Hpt].
Qed.

Theorem compile_gen_accept_unique ns o calls srcs c :
  compile_gen ns o calls srcs = COk c -> NoDup (map t_name (r_templates (cp_reg c))).
Proof.
  intros Hc. unfold compile_gen in Hc.
  destruct (bg_err _) as [[gn gv]|]; [discriminate|].
  destruct (add_all_files empty_creg srcs) as [r|e] eqn:Ea; [|discriminate].
  destruct (add_files_perm _ _ _ (Permutation_refl _) Ea) as (fs & _ & _ & _ & _ & (_ & Hnd & _) & -> & _).
  destruct (first_failure _ _) as [[n1 e1]|]; [discriminate|]. destruct (first_failure _ _) as [[n2 e2]|]; [discriminate|].
  injection Hc as <-. exact Hnd.
Qed.

Lemma template_local_file fn ns ae prev tn u : template_local fn ns ae prev tn = inr u -> t_file (tu_template u) = fn.
Proof.
  unfold template_local. destruct tn; try discriminate. destruct tn; try discriminate.
  destruct prev as [pv|]; [|discriminate]. destruct (span_headers nodes) as [hs rest].
  destruct hs; [intros [= <-]; reflexivity|]. destruct (match pv with NSoyDoc _ ps => ps | _ => [] end); [intros [= <-]; reflexivity | discriminate].
Qed.

Lemma file_units_file fn ns ae body : forall prev u, In (inr u) (file_units fn ns ae prev body) -> t_file (tu_template u) = fn.
Proof.
  induction body as [|n r IH]; intros prev u; cbn [file_units]; [intros []|].
  intros H. apply in_app_or in H. destruct H as [H|H]; [|eapply IH; exact H].
  destruct (is_template n); [|destruct H]. destruct H as [H|[]]. eapply template_local_file; exact H.
Qed.

Lemma units_ok_In us l u : units_ok us = Some l -> In u l -> In (inr u) us.
Proof.
  revert l. induction us as [|[e|u'] r IH]; cbn [units_ok]; intros l H Hi; [injection H as <-; destruct Hi | discriminate |].
  destruct (units_ok r) as [l'|]; [|discriminate]. injection H as <-. destruct Hi as [<-|Hi]; [left; reflexivity | right; eapply IH; [reflexivity | exact Hi]].
Qed.

(* failure of the loop over the templates of one file: the first unit that is
   rejected on its own, or whose name is taken *)
Lemma add_units_err fn tx us : forall reg e, add_units fn tx us reg = inl e ->
  exists us1 l1 x us2, us = us1 ++ x :: us2 /\ units_ok us1 = Some l1 /\
    (x = inl e \/ exists u other, x = inr u /\ e = AEDuplicate (unit_name u) other fn /\
                  assoc_s (unit_name u) (r_files reg ++ map name_file (map tu_template l1)) = Some other).
Proof.
  induction us as [|[e'|u] r IH]; intros reg e H; cbn [add_units] in H; [discriminate | |].
  - injection H as <-. exists [], [], (inl e'), r. repeat split. left. reflexivity.
  - destruct (assoc_s (t_name (tu_template u)) (r_files reg)) as [other|] eqn:Ef.
    + injection H as <-. exists [], [], (inr u), r. repeat split. right. exists u, other. repeat split.
      cbn [map]. rewrite app_nil_r. exact Ef.
    + destruct (IH _ _ H) as (us1 & l1 & x & us2 & -> & Hok & Hx). exists (inr u :: us1), (u :: l1), x, us2.
      split; [reflexivity|]. split; [cbn [units_ok]; rewrite Hok; reflexivity|].
      destruct Hx as [Hx|(u' & other & -> & -> & Ha)]; [left; exact Hx|]. right. exists u', other. repeat split.
      unfold reg_append in Ha. cbn [r_files] in Ha. rewrite (put_fresh _ _ _ Ef), <- app_assoc in Ha. exact Ha.
Qed.

(* the registry built from the files added so far *)
Definition def_entry (d : sfile * bstr) : bstr * bstr := (snd d, sfile_name (fst d)).
Definition built_from (r : creg) (pre : list src) : Prop :=
  reg_inv (cr_reg r) /\ r_files (cr_reg r) = map def_entry (definitions pre).

Lemma definitions_app l1 l2 : definitions (l1 ++ l2) = definitions l1 ++ definitions l2.
Proof. unfold definitions. apply flat_map_app. Qed.

Lemma file_result_files f ts pf : file_result f = Some (ts, pf) -> map name_file ts = map def_entry (map (pair f) (map t_name ts)).
Proof.
  unfold file_result. destruct (find_namespace (sfile_body f)) as [e|[ns ae]]; [discriminate|].
  destruct (units_ok _) as [l|] eqn:E; [|discriminate]. intros [= <- _]. rewrite !map_map. apply map_ext_in. intros u Hu.
  unfold name_file, def_entry. cbn. f_equal. eapply file_units_file, units_ok_In; eassumption.
Qed.

Lemma built_from_add r pre f r' : built_from r pre -> registry_add r f = inr r' -> built_from r' (pre ++ [SrcOk f]).
Proof.
  intros (Hinv & Hf) Ha. apply registry_add_ok in Ha; [|exact Hinv]. destruct Ha as (ts & pf & Er & _ & _ & ->). split; cbn [cr_reg].
  - apply reg_inv_extend, Hinv.
  - unfold reg_extend. cbn [r_files]. rewrite definitions_app, map_app, Hf. f_equal.
    unfold definitions. cbn [flat_map]. rewrite app_nil_r, (file_defines_ok _ _ _ Er). apply file_result_files with (pf := pf), Er.
Qed.

Section ErrorsOfTheBundle.
  Variable ko : korder.
  Variable bg : bundle_globals.

  Lemma add_files_err srcs : forall pre r e, built_from r pre -> add_all_files r srcs = CErr e -> bundle_error ko bg (pre ++ srcs) e.
  Proof.
    induction srcs as [|[f|pn pm] rest IH]; intros pre r e Hb H; cbn [add_all_files] in H; [discriminate | |].
    - destruct (registry_add r f) as [e0|r1] eqn:Ea.
      + injection H as <-. unfold registry_add in Ea.
        assert (Hin : In (SrcOk f) (pre ++ SrcOk f :: rest)) by (apply in_or_app; right; left; reflexivity).
        destruct (find_namespace (sfile_body f)) as [en|[ns ae]] eqn:En.
        * injection Ea as <-. apply BE_namespace; assumption.
        * destruct (add_units _ _ _ _) as [eu|reg'] eqn:Eu; [|discriminate]. injection Ea as <-.
          destruct (add_units_err _ _ _ _ _ Eu) as (us1 & l1 & x & us2 & Hus & Hok & Hx).
          destruct Hx as [->|(u & other & -> & -> & Hassoc)].
          -- eapply BE_unit; [exact Hin | exact En |]. rewrite Hus. apply in_or_app. right. left. reflexivity.
          -- (* the name is taken: by a file added before, or by an earlier template of this file *)
             assert (Hdefs : definitions (pre ++ SrcOk f :: rest)
                             = (definitions pre ++ map (pair f) (map unit_name l1)) ++ (f, unit_name u) :: map (pair f) (unit_names us2) ++ definitions rest).
             { rewrite definitions_app, <- app_assoc. f_equal. unfold definitions at 1. cbn [flat_map]. fold (definitions rest).
               unfold file_defines. rewrite En, Hus. unfold unit_names. rewrite flat_map_app. cbn [flat_map].
               fold (unit_names us1). fold (unit_names us2). rewrite (unit_names_ok _ _ Hok).
               rewrite map_app. cbn [map app]. rewrite <- !app_assoc. reflexivity. }
             assert (Hprev : exists f1, other = sfile_name f1 /\ In (f1, unit_name u) (definitions pre ++ map (pair f) (map unit_name l1))).
             { destruct Hb as (_ & Hf). rewrite Hf in Hassoc. apply assoc_s_Some_In, in_app_or in Hassoc. destruct Hassoc as [Hi|Hi].
               - apply in_map_iff in Hi. destruct Hi as ([f1 t1] & [= -> <-] & Hi). exists f1. split; [reflexivity|]. apply in_or_app. left. exact Hi.
               - rewrite map_map in Hi. apply in_map_iff in Hi. destruct Hi as (u1 & [= Hn <-] & Hi). exists f. split.
                 + apply (file_units_file (sfile_name f) ns ae (sfile_body f) None u1). rewrite Hus. apply in_or_app. left. eapply units_ok_In; eassumption.
                 + apply in_or_app. right. fold (unit_name u1) in Hn. rewrite <- Hn. apply in_map, in_map, Hi. }
             destruct Hprev as (f1 & -> & Hprev). destruct (in_split _ _ Hprev) as (d1 & d2 & Hsplit).
             apply (BE_duplicate _ _ _ f1 f _ ((d1 ++ d2) ++ map (pair f) (unit_names us2) ++ definitions rest)).
             rewrite Hdefs, Hsplit. apply two_occurrences. rewrite <- !app_assoc. reflexivity.
      + replace (pre ++ SrcOk f :: rest) with ((pre ++ [SrcOk f]) ++ rest) by (rewrite <- app_assoc; reflexivity).
        eapply IH; [eapply built_from_add; eassumption | exact H].
    - injection H as <-. apply BE_parse. apply in_or_app. right. left. reflexivity.
  Qed.
End ErrorsOfTheBundle.

Lemma built_from_empty : built_from empty_creg [].
Proof. split; reflexivity. Qed.

(* whatever error the compiler reports is one of the independent errors of the bundle *)
Theorem compile_gen_error_of_bundle ns o calls srcs e :
  compile_gen ns o calls srcs = CErr e ->
  bundle_error (o_children o) (bundle_of_globals (o_globals o) calls) srcs e.
Proof.
  intros H. unfold compile_gen in H.
  destruct (bg_err (bundle_of_globals (o_globals o) calls)) as [[gn gv]|] eqn:Eg.
  - injection H as <-. apply BE_globals, Eg.
  - destruct (add_all_files empty_creg srcs) as [r|e0] eqn:Ea.
    + destruct (first_failure (check_template _ _) _) as [[n1 e1]|] eqn:Ec.
      * injection H as <-. destruct (first_failure_Some _ _ _ _ Ec) as (t & Hi & <- & He). eapply BE_check; eassumption.
      * destruct (first_failure (set_globals_template _ _) _) as [[n2 e2]|] eqn:Es; [|discriminate].
        injection H as <-. destruct (first_failure_Some _ _ _ _ Es) as (t & Hi & <- & He). eapply BE_global; eassumption.
    + injection H as <-. apply (add_files_err _ _ srcs [] empty_creg e0 built_from_empty Ea).
Qed.

(* the set of independent errors does not depend on the order of the files *)
Theorem bundle_error_perm ko bg srcs srcs' e :
  Permutation srcs srcs' -> bundle_error ko bg srcs e -> bundle_error ko bg srcs' e.
Proof.
  intros Hp H. destruct H.
  - apply BE_globals; assumption.
  - apply BE_parse. eapply Permutation_in; eassumption.
  - apply BE_namespace; [eapply Permutation_in; eassumption | assumption].
  - eapply BE_unit; [eapply Permutation_in; eassumption | eassumption | assumption].
  - eapply BE_duplicate. eapply Permutation_trans; [|eassumption]. unfold definitions. apply Permutation_flat_map, Permutation_sym, Hp.
  - destruct (add_files_perm _ _ _ Hp H) as (fs & fs' & -> & -> & Hpf & (_ & Hnd & _) & -> & Ea').
    rewrite big_extend_templates in *. pose proof (all_ts_perm _ _ Hpf) as Hpt.
    eapply BE_check; [exact Ea' | rewrite big_extend_templates; eapply Permutation_in; eassumption |].
    rewrite big_extend_templates, <- (check_phase_perm _ _ _ Hnd Hpt). assumption.
  - destruct (add_files_perm _ _ _ Hp H) as (fs & fs' & -> & -> & Hpf & _ & -> & Ea').
    rewrite big_extend_templates in *. pose proof (all_ts_perm _ _ Hpf) as Hpt.
    eapply BE_global; [exact Ea' | rewrite big_extend_templates; eapply Permutation_in; eassumption | assumption].
Qed.

Theorem compile_gen_file_perm ns o calls srcs srcs' :
  Permutation srcs srcs' ->
  (* accepted in one order: accepted in the other, with the same result *)
  (forall c, compile_gen ns o calls srcs = COk c ->
             exists c', compile_gen ns o calls srcs' = COk c' /\ same_result c c') /\
  (* rejected in one order: rejected in the other; both errors are independent errors of the one bundle *)
  (forall e, compile_gen ns o calls srcs = CErr e ->
             exists e', compile_gen ns o calls srcs' = CErr e' /\
                        bundle_error (o_children o) (bundle_of_globals (o_globals o) calls) srcs e /\
                        bundle_error (o_children o) (bundle_of_globals (o_globals o) calls) srcs e').
Proof.
  intros Hp. split.
  - intros c Hc. eapply compile_gen_accept_perm; eassumption.
  - intros e He. destruct (compile_gen ns o calls srcs') as [c'|e'] eqn:E'.
    + destruct (compile_gen_accept_perm ns o calls srcs' srcs c' (Permutation_sym Hp) E') as (c & Hc & _). congruence.
    + exists e'. split; [reflexivity|]. split; [apply (compile_gen_error_of_bundle ns _ _ _ _ He)|].
      eapply bundle_error_perm; [apply Permutation_sym, Hp | apply (compile_gen_error_of_bundle ns _ _ _ _ E')].
Qed.

(* Add never indexes before the first node of a file: the namespace test has
   already seen that the file does not begin with a template *)
Lemma file_units_no_crash fn ns ae body : forall prev, prev <> None \/ (match body with n :: _ => is_template n = false | [] => True end) ->
  ~ In (inl AEIndexCrash) (file_units fn ns ae prev body).
Proof.
  induction body as [|n r IH]; intros prev Hprev; cbn [file_units]; [intros []|].
  intros H. apply in_app_or in H. destruct H as [H|H].
  - destruct (is_template n) eqn:Et; [|destruct H]. destruct H as [H|[]].
    destruct Hprev as [Hprev|Hprev]; [|congruence].
    unfold template_local in H. destruct n; try discriminate. destruct n; try discriminate.
    destruct prev as [pv|]; [|congruence]. destruct (span_headers nodes) as [hs rest].
    destruct hs; [discriminate|]. destruct (match pv with NSoyDoc _ ps => ps | _ => [] end); discriminate.
  - eapply IH; [|exact H]. left. discriminate.
Qed.

Lemma find_namespace_no_crash body : find_namespace body <> inl AEIndexCrash.
Proof. induction body as [|n b IH]; cbn [find_namespace]; [discriminate|]. destruct n; try discriminate. exact IH. Qed.

Theorem registry_add_no_crash r f : registry_add r f <> inl AEIndexCrash.
Proof.
  unfold registry_add. destruct (find_namespace (sfile_body f)) as [e|[ns ae]] eqn:En.
  - intros [= ->]. apply (find_namespace_no_crash _ En).
  - destruct (add_units _ _ _ _) as [e|reg'] eqn:Eu; [|discriminate]. intros [= ->].
    destruct (add_units_err _ _ _ _ _ Eu) as (us1 & l1 & x & us2 & Hus & _ & Hx).
    destruct Hx as [->|(u & other & _ & Hd & _)]; [|discriminate].
    eapply (file_units_no_crash (sfile_name f) ns ae (sfile_body f) None).
    + right. destruct (sfile_body f) as [|n b]; [exact I|]. cbn [find_namespace] in En. destruct n; try discriminate; reflexivity.
    + rewrite Hus. apply in_or_app. right. left. reflexivity.
Qed.

Theorem compile_file_perm ns o calls srcs srcs' :
  Permutation srcs srcs' ->
  (forall c, compile ns o calls srcs = COk c -> exists c', compile ns o calls srcs' = COk c' /\ same_result c c') /\
  (forall e, compile ns o calls srcs = CErr e ->
             exists e', compile ns o calls srcs' = CErr e' /\
                        bundle_error (sorted_after (o_children o)) (bundle_of_globals (sorted_after (o_globals o)) calls) srcs e /\
                        bundle_error (sorted_after (o_children o)) (bundle_of_globals (sorted_after (o_globals o)) calls) srcs e').
Proof. intros Hp. exact (compile_gen_file_perm ns (repaired_orders o) calls srcs srcs' Hp). Qed.

Theorem compile_error_of_bundle ns o calls srcs e :
  compile ns o calls srcs = CErr e ->
  bundle_error (sorted_after (o_children o)) (bundle_of_globals (sorted_after (o_globals o)) calls) srcs e.
Proof. exact (compile_gen_error_of_bundle ns (repaired_orders o) calls srcs e). Qed.

Theorem compile_accept_unique ns o calls srcs c :
  compile ns o calls srcs = COk c -> NoDup (map t_name (r_templates (cp_reg c))).
Proof. exact (compile_gen_accept_unique ns (repaired_orders o) calls srcs c). Qed.

(* the files handed to the JavaScript generator are the same, whatever the order *)
Corollary same_result_js_inputs c c' : same_result c c' -> forall f, In f (cp_soyfiles c) <-> In f (cp_soyfiles c').
Proof.
  intros H f. split; intros Hi; [eapply Permutation_in; [apply (sr_soyfiles _ _ H) | exact Hi]
                               | eapply Permutation_in; [apply Permutation_sym, (sr_soyfiles _ _ H) | exact Hi]].
Qed.
