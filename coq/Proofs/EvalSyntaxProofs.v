(* C01: the two halves composed.  The SYNTAX half is Proofs/ExprParserProofs.v (parse_show:
   the model of parse.go's expression parser reads the token sequence [show sty path n] of a
   well-formed tree n, written with minimal parentheses plus any redundant ones, back as n).
   Here: the tree [to_node [] e] of every Spec expression with a concrete syntax is well-formed
   in that sense, and resolving its globals (parsepasses.SetNodeGlobals) gives [to_node G e],
   the tree eval_impl_spec is about.  Hence: tokens of e  --parser model-->  tree
   --SetGlobals--> tree  --walker model-->  the Spec's value. *)
From Coq Require Import Lia ZifyBool.
From Soy Require Import Model.Bytes Model.Num Model.Values Model.Outcome Model.Ast Model.AstPrint Model.Interp
  Model.Token Model.NumLit Model.Quote Model.ExprParser Model.ExprTrans Spec.Expr Spec.ExprSyntax Generated.Tables
  Proofs.EvalProofs Proofs.EvalMainProofs Proofs.ExprParserRules Proofs.ExprParserProofs.
Open Scope N_scope.

(* a Spec expression whose literals have a concrete syntax that reads back: integers within
   int64, floats of the printing domain, strings that survive quote/unquote (every valid UTF-8
   string does: a decidable condition per literal), non-negative .N indices, map literals
   written with increasing keys (the parser's Go map has no order; the model lists it sorted) *)
Fixpoint syntax_ok (e : expr) : Prop :=
  match e with
  | EInt z => in_int64 z = true
  | EFloat f => float_ok f
  | EStr s => key_ok s
  | EList es => allP syntax_ok es
  | EMap kvs => allP (fun kv => key_ok (fst kv) /\ syntax_ok (snd kv)) kvs /\ keys_sorted (map fst kvs)
  | ERef _ accs | EIj accs => allP acc_ok accs
  | ECall _ args => allP syntax_ok args
  | ENeg a | ENot a => syntax_ok a
  | EBin _ a c | EElvis a c => syntax_ok a /\ syntax_ok c
  | ETern c a d => syntax_ok c /\ syntax_ok a /\ syntax_ok d
  | _ => True
  end
with acc_ok (a : access) : Prop :=
  match a with
  | AIdx _ i => (0 <= i)%Z /\ in_int64 i = true
  | AExpr _ e => syntax_ok e
  | AKey _ _ => True
  end.

Lemma allP_map {A B} (P : A -> Prop) (Q : B -> Prop) (h : A -> B) l :
  Forall (fun x => P x -> Q (h x)) l -> allP P l -> allP Q (map h l).
Proof.
  induction 1 as [|x r Hx _ IH]; intros Hp; cbn [allP map] in *; [exact I|].
  destruct Hp as [Hpx Hr]. split; [apply Hx, Hpx|apply IH, Hr].
Qed.

Lemma pos_to_node G e : pos_of (to_node G e) = 0.
Proof. destruct e; reflexivity. Qed.

Lemma max_list_in_g {A} (h : A -> nat) l x n : (S (max_list (map h l)) <= S n)%nat -> In x l -> (h x <= n)%nat.
Proof. intros Hle Hin. pose proof (max_list_le (map h l) (h x) (in_map h l x Hin)). lia. Qed.

Lemma max_list_in (h : expr -> nat) l x n : (S (max_list (map h l)) <= S n)%nat -> In x l -> (h x <= n)%nat.
Proof. apply max_list_in_g. Qed.

(* the parser's tree of a Spec expression is a well-formed tree of Spec/ExprSyntax.v *)
Theorem src_wf e : syntax_ok e -> ExprSyntax.wf_expr (to_node [] e).
Proof.
  induction e using expr_nested_ind
    with (Q := fun a => acc_ok a ->
                 match acc_node [] a with
                 | NAccIndex _ _ i => (0 <= i)%Z /\ in_int64 i = true
                 | NAccKey _ _ _ => True
                 | NAccExpr _ _ x => ExprSyntax.wf_expr x
                 | _ => False
                 end);
    cbn [to_node ExprSyntax.wf_expr syntax_ok];
    try (intros; exact I); try (intros; reflexivity); try assumption; try exact (fun H => H); try (apply allP_map; assumption).
  - intros [Hitems Hsorted]. split; [|rewrite map_map; exact Hsorted].
    revert Hitems. apply (allP_map (fun kv => key_ok (fst kv) /\ syntax_ok (snd kv))).
    eapply Forall_impl; [|eassumption]. intros kv IH [Hk Hv]. split; [exact Hk|apply IH, Hv].
  - intros [H1 H2]. auto.
  - intros [H1 H2]. auto.
  - intros (H1 & H2 & H3). rewrite pos_to_node. auto.
Qed.

(* SetNodeGlobals turns the parser's tree into the compiled tree *)
Theorem set_globals_to_node G e : set_globals G (to_node [] e) = to_node G e.
Proof.
  induction e using expr_nested_ind with (Q := fun a => set_globals G (acc_node [] a) = acc_node G a);
    cbn [to_node acc_node set_globals]; try reflexivity; try (f_equal; assumption);
    try (f_equal; apply map_map_Forall; assumption).
  f_equal. apply map_map_Forall. eapply Forall_impl; [|eassumption]. intros kv IH. cbn [fst snd]. f_equal. exact IH.
Qed.

(* tokens -> tree -> value.  [show sty path (to_node [] e)] is the token sequence of e with the
   parentheses the operator table requires plus any redundant ones [sty] asks for; [t] is any
   item that cannot continue an expression ("}", ",", "]", ":", "|", ...). *)
Theorem text_to_value G ij cf sty path e t rest fuel st :
  syntax_ok e -> ExprTrans.wf_expr G e = true -> closer t = true ->
  c_ij cf = ij -> (height e <= fuel)%nat ->
  exists st' f0, stream st' = t :: rest /\
    (forall f, (f0 <= f)%nat -> parse_expr_top f (show sty path (to_node [] e) ++ t :: rest) = POk (to_node [] e) st') /\
    (forall v n', eval_spec G (flatten (ctx st)) ij e (next_id st) = Ok (v, n') ->
       exists st2, walk cf fuel (set_globals G (to_node [] e)) st = (Ok v, st2) /\ frame_eq st st2 /\ next_id st2 = n') /\
    (forall m, eval_spec G (flatten (ctx st)) ij e (next_id st) = Err m ->
       exists msg st2, walk cf fuel (set_globals G (to_node [] e)) st = (Err msg, st2) /\ frame_eq st st2).
Proof.
  intros Hok Hwf Hc Hij Hh.
  destruct (parse_show_top sty path (to_node [] e) t rest (src_wf e Hok) Hc) as (st'&f0&Hs&Hp).
  exists st', f0. split; [exact Hs|]. split; [exact Hp|].
  rewrite (set_globals_to_node G e).
  exact (eval_impl_spec G ij cf fuel e st Hij Hwf Hh).
Qed.
