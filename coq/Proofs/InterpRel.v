(* The RELATIONAL form of the guarded walker induction principle
   (Proofs/InterpGuard.v), from the one-unfolding principle of Proofs/InterpSub.v:
   [walk_body cf w n] is parametric in [w].  For a relation between computations [Phi : forall A, M A -> M A -> Prop] closed under
   the structure of the monad, the primitives (each related to itself) and the
   brackets, if [Phi (w1 n) (w2 n)] for every [n] with [deep g n] and
   [PhiT (w1 (t_node callee)) (w2 (t_node callee))] for every template of the
   registry, then [Phi (walk_body cf w1 n) (walk_body cf w2 n)] for every [n]
   with [deep g n].  Used by Proofs/ModeProofs.v to show that a walker
   instrumented with a monitor is the walker. *)
From Soy Require Import Model.Bytes Model.Num Model.Values Model.Outcome Model.Ast
  Model.Escape Model.Directives Model.Print Generated.Tables Model.Interp Proofs.InterpLogic Proofs.InterpSub Proofs.InterpGuard.
Require Import Lia.
Open Scope N_scope.

Section Relational.
Variable cf : cfg.
Variable g : node -> bool.
Variable Phi : forall A : Type, M A -> M A -> Prop.
Arguments Phi {A} _ _.
Variable PhiT : M value -> M value -> Prop.       (* of the walks of a callee's template node *)
Variable pure_ok : forall A : Type, outcome A -> Prop.
Arguments pure_ok {A} _.

Record walker_logic_r : Prop := {
  wr_ext : forall A (m1 m1' m2 m2' : M A), (forall st, m1 st = m1' st) -> (forall st, m2 st = m2' st) -> Phi m1 m2 -> Phi m1' m2';
  wr_ret : forall A (x : A), Phi (ret x) (ret x);
  wr_fail : forall A e, Phi (@fail A e) (@fail A e);
  wr_lift : forall A (o : outcome A), pure_ok o -> Phi (lift o) (lift o);
  wr_bind : forall A B (m1 m2 : M A) (f1 f2 : A -> M B), Phi m1 m2 -> (forall x, Phi (f1 x) (f2 x)) -> Phi (mbind m1 f1) (mbind m2 f2);
  wr_set_cur : forall p, Phi (modify (fun st => set_cur st p)) (modify (fun st => set_cur st p));
  wr_template_mode : forall p name body ae priv, g (NTemplate p name body ae priv) = true ->
      Phi (modify (fun st => set_mode st (template_mode (mode st) ae))) (modify (fun st => set_mode st (template_mode (mode st) ae)));
  wr_write : forall w, Phi (write w) (write w);
  wr_set : forall k v, Phi (m_set k v) (m_set k v);
  wr_lookup : forall k, Phi (m_lookup k) (m_lookup k);
  wr_fresh_list : forall l, Phi (fresh_list l) (fresh_list l);
  wr_fresh_list_or_nil : forall l, Phi (fresh_list_or_nil l) (fresh_list_or_nil l);
  wr_fresh_map : forall m, Phi (fresh_map m) (fresh_map m);
  wr_read_mode : forall B (f1 f2 : N -> M B), (forall x, Phi (f1 x) (f2 x)) -> Phi (st <-- get ;;; f1 (mode st)) (st <-- get ;;; f2 (mode st));
  wr_read_ctx : forall B (f1 f2 : scope -> M B), (forall x, Phi (f1 x) (f2 x)) -> Phi (st <-- get ;;; f1 (ctx st)) (st <-- get ;;; f2 (ctx st));
  wr_scoped : forall (m1 m2 : M unit), Phi m1 m2 ->
      Phi (_ <-- m_push ;;; _ <-- m1 ;;; _ <-- m_pop ;;; ret VUndef) (_ <-- m_push ;;; _ <-- m2 ;;; _ <-- m_pop ;;; ret VUndef);
  wr_eval : forall (w1 w2 : node -> M value) e, Phi (w1 e) (w2 e) -> Phi (eval w1 e) (eval w2 e);
  wr_block : forall (w1 w2 : node -> M value) body, Phi (w1 body) (w2 body) -> Phi (render_block w1 body) (render_block w2 body);
  wr_enter : forall (w1 w2 : node -> M value) callee cd, PhiT (w1 (t_node callee)) (w2 (t_node callee)) ->
      Phi (call_enter w1 callee cd) (call_enter w2 callee cd);
}.

Hypothesis L : walker_logic_r.
Hypothesis PS : pure_sites (@pure_ok).
Hypothesis g_plural : forall p l, g (NMsg p 0 [] [] l) = true.

Lemma rel_body_logic : body_logic (@Phi) (@pure_ok).
Proof. destruct L. constructor; auto. apply scoped2_of_scoped; auto. Qed.

Section Body.
Variables w1 w2 : node -> M value.
Hypothesis Hw : forall n, deep g n = true -> Phi (w1 n) (w2 n).
Hypothesis HwT : forall callee, In callee (r_templates (c_reg cf)) -> PhiT (w1 (t_node callee)) (w2 (t_node callee)).

Lemma rphi_call_params ps : forallb (deep g) ps = true -> forall cd, Phi (call_params w1 ps cd) (call_params w2 ps cd).
Proof using L Hw. intros H. apply (bphi_call_params _ _ rel_body_logic), (deep_loop g _ _ _ Hw (deep_param_subs g) H). Qed.

Lemma rphi_call_data alldata dat : deep_opt (deep g) dat = true -> Phi (call_data w1 alldata dat) (call_data w2 alldata dat).
Proof using L Hw.
  intros H. apply (bphi_call_data _ _ rel_body_logic).
  destruct dat; cbn [opt_list]; [apply Forall_cons; [apply Hw, H|] |]; apply Forall_nil.
Qed.

Lemma rphi_walk_node n : deep g n = true -> Phi (walk_node cf w1 n) (walk_node cf w2 n).
Proof.
  intros H.
  apply (bphi_walk_node cf _ _ rel_body_logic (pure_sites_to_sub _ PS) w1 w2 n).
  - apply (wr_set_cur L).
  - intros p name body ae priv ->. apply (wr_template_mode L p name body ae priv), (deep_g g _ H).
  - eapply Forall_impl; [exact Hw | exact (deep_subnodes g g_plural n H)].
  - intros callee cd Hc. apply (wr_enter L), HwT. destruct n; try discriminate Hc. exact (find_template_In _ _ _ Hc).
Qed.

Lemma rphi_walk_body n : deep g n = true -> Phi (walk_body cf w1 n) (walk_body cf w2 n).
Proof.
  intros H. unfold walk_body. apply (bl_bind _ _ rel_body_logic); [apply (wr_set_cur L) | intros _; apply rphi_walk_node, H].
Qed.
End Body.
End Relational.

(* without a guard: the hypothesis on the recursive calls is there for every node *)
Section Unguarded.
Variable cf : cfg.
Variable Phi : forall A : Type, M A -> M A -> Prop.
Variable PhiT : M value -> M value -> Prop.
Variable pure_ok : forall A : Type, outcome A -> Prop.
Hypothesis L : walker_logic_r (fun _ => true) Phi PhiT pure_ok.
Hypothesis PS : pure_sites pure_ok.
Variables w1 w2 : node -> M value.
Hypothesis Hw : forall n, Phi _ (w1 n) (w2 n).
Hypothesis HwT : forall callee, PhiT (w1 (t_node callee)) (w2 (t_node callee)).

Lemma rphi_walk_node_all n : Phi _ (walk_node cf w1 n) (walk_node cf w2 n).
Proof.
  apply (bphi_walk_node cf _ _ (rel_body_logic _ _ _ _ L) (pure_sites_to_sub _ PS)).
  - apply (wr_set_cur _ _ _ _ L).
  - intros p name body ae priv _. apply (wr_template_mode _ _ _ _ L p name body ae priv). reflexivity.
  - apply Forall_forall. intros c _. apply Hw.
  - intros callee cd _. apply (wr_enter _ _ _ _ L), HwT.
Qed.

Lemma rphi_walk_body_all n : Phi _ (walk_body cf w1 n) (walk_body cf w2 n).
Proof.
  unfold walk_body. apply (wr_bind _ _ _ _ L); [apply (wr_set_cur _ _ _ _ L) | intros _; apply rphi_walk_node_all].
Qed.
End Unguarded.
