(* C04, the call stage closed over a whole program, and the template wrapper.

   Model/MiniJSProg.v: a program is a list of templates with bodies of the statement subset (calls included);
   [c04_tout k] is what rendering a template writes, by recursion on the call depth k.  Here, by induction on k:
     go_call_correct  -- the walker of Model/Interp.v, entering the template of that name with a scope that holds the
                         data (call_enter: what evalCall does, and what Execute does up to the entry mode), writes that text;
     js_call_correct  -- the MiniJS function of the template in the generated file returns that text;
   both are the context (callctx_ok) relative to which the per-statement simulation of Proofs/MiniJSSim.v is stated,
   so the call stage holds for every statement of every template of the program at every call depth.
     gen_template     -- walking the template's node in Model/JsGen.v emits the function header, var output = '',
                         the printed MiniJS block of the body, return output: the function table of js_call_correct is
                         what the generator writes. *)
From Soy Require Import Model.Bytes Model.Num Model.Values Model.Outcome Model.Ast Model.JsGen Model.MiniJS Model.MiniJSProg
  Model.Escape Model.Directives Model.Print Generated.Tables Model.Interp
  Proofs.EscapeProofs Proofs.MiniJSProofs Proofs.MiniJSPrint Proofs.MiniJSStmt Model.MsgId Proofs.MsgIdProofs
  Proofs.MiniJSCtl Proofs.MiniJSGo Proofs.MiniJSGen Proofs.MiniJSSim.
Open Scope N_scope.

Fixpoint c04_maxdepth (p : list ctmpl) : nat :=
  match p with [] => 0%nat | t :: r => Nat.max (bdepth (ct_body t)) (c04_maxdepth r) end.
(* the fuel one level of calls needs: the template node, its body block, the call statement *)
Definition c04_D (p : list ctmpl) : nat := S (S (S (S (c04_maxdepth p)))).

Lemma c04_find_name p name t : c04_find p name = Some t -> ct_name t = name.
Proof.
  induction p as [|x r IH]; cbn [c04_find]; [discriminate|]. destruct (bstr_eqb (ct_name x) name) eqn:E; [|exact IH].
  intro H. inversion H; subst. apply bstr_eqb_true. exact E.
Qed.
Lemma c04_find_template p name t : c04_find p name = Some t -> find_template (c04_templates p) name = Some (c04_template t).
Proof.
  induction p as [|x r IH]; cbn [c04_find c04_templates map find_template]; [discriminate|]. cbn [c04_template t_name].
  destruct (bstr_eqb (ct_name x) name); [intro H; inversion H; reflexivity|exact IH].
Qed.
Lemma c04_find_depth p name t : c04_find p name = Some t -> (bdepth (ct_body t) <= c04_maxdepth p)%nat.
Proof.
  induction p as [|x r IH]; cbn [c04_find c04_maxdepth]; [discriminate|].
  destruct (bstr_eqb (ct_name x) name); [intro H; inversion H; subst; lia|intro H; specialize (IH H); lia].
Qed.
Lemma c04_find_jprog p cnt name t : c04_find p name = Some t ->
  assoc_s name (c04_jprog p cnt) = Some (ct_allopt t, c04_jbody t (cnt (ct_name t))).
Proof.
  induction p as [|x r IH]; cbn [c04_find c04_jprog map]; [discriminate|]. unfold assoc_s; fold (@assoc_s (bool * jblk)).
  rewrite (bstr_eqb_sym name (ct_name x)). destruct (bstr_eqb (ct_name x) name); [intro H; inversion H; reflexivity|exact IH].
Qed.

(* a table of JavaScript functions for the program: under the name of each template, its function generated from some counter *)
Definition c04_table_ok (p : list ctmpl) (jp : list (bstr * (bool * jblk))) : Prop :=
  forall name t, c04_find p name = Some t -> exists n, assoc_s name jp = Some (ct_allopt t, c04_jbody t n).
Lemma c04_jprog_ok p cnt : c04_table_ok p (c04_jprog p cnt).
Proof. intros name t Ef. eexists. apply c04_find_jprog. exact Ef. Qed.
Lemma c04_jprog_chain_ok p : forall n, c04_table_ok p (c04_jprog_chain p n).
Proof.
  induction p as [|x r IH]; intros n name t Ef; cbn [c04_find] in Ef; [discriminate|].
  unfold c04_jprog_chain. cbn [c04_chain map fst snd]. unfold assoc_s; fold (@assoc_s (bool * jblk)).
  rewrite (bstr_eqb_sym name (ct_name x)). destruct (bstr_eqb (ct_name x) name).
  - inversion Ef; subst. eexists. reflexivity.
  - exact (IH _ name t Ef).
Qed.

(* ---- the scope a template body starts in ---- *)
Lemma sc_enter_lookup cd k : cd <> [] -> sc_lookup (sc_enter cd) k = sc_lookup cd k.
Proof. destruct cd as [|f r]; [congruence|]. intros _. reflexivity. Qed.
Lemma sc_enter_dinv cd denv : cd <> [] -> (forall k, sc_lookup cd k = denv k) -> dinv denv (sc_enter cd).
Proof.
  destruct cd as [|f r]; [congruence|]. intros _ Hl. unfold sc_enter, sc_push.
  eexists fresh_frame, _, _. split; [reflexivity|]. split; [reflexivity|]. split; [cbn [sc_alldata f_entered]; reflexivity|].
  intro k. rewrite <- Hl. reflexivity.
Qed.

Section Prog.
Variable cf : cfg.
Variable p : list ctmpl.
Hypothesis Hob : c_oblig cf = [].
Hypothesis Hij : forall x, c_ij cf = Some x -> core_value x = true.
Hypothesis Hreg : r_templates (c_reg cf) = c04_templates p.

(* state.walk of a template node, in a state whose scope holds the template's data: the template's autoescape mode, then the body *)
Lemma go_template_walk k t f1 st cenv text :
  go_callee_ok cf (c04_tout (c_ij cf) go_print_text p k) (k * c04_D p) ->
  (k * c04_D p + bdepth (ct_body t) < f1)%nat -> wok st -> agrees cenv st cenv -> envok cenv ->
  bout (c_ij cf) (template_mode (mode st) (ct_ae t)) go_print_text cenv (c04_tout (c_ij cf) go_print_text p k) cenv (ct_body t) = Some text ->
  exists st' ws rv, walk cf (S f1) (t_node (c04_template t)) st = (Ok rv, st') /\ wrote st st' ws /\ concat_b ws = text /\ ctx st' = ctx st.
Proof.
  intros IH Hf Hg Ha Hc E.
  cbn [c04_template t_node]. rewrite walk_unfold. cbn [walk_node pos_of].
  unfold mbind at 1. cbn [modify].
  set (st3 := set_mode (set_cur st 0) (template_mode (mode (set_cur st 0)) (ct_ae t))).
  assert (M3 : mode st3 = template_mode (mode st) (ct_ae t)) by reflexivity.
  assert (C3 : ctx st3 = ctx st) by reflexivity.
  assert (S3 : wsame st st3) by (repeat split).
  destruct (go_block cf cenv (c04_tout (c_ij cf) go_print_text p k) (k * c04_D p) (ct_body t) f1 st3 text cenv
              (proj1 (proj2 (interp_all cf Hob Hij cenv Hc _ _ IH)) (ct_body t)) Hf (wsame_wok _ _ S3 Hg) (agrees_ctx _ _ _ _ C3 Ha) Hc)
    as (st4 & ws & rv & E4 & W4 & T4 & M4 & X4).
  { rewrite M3. exact E. }
  unfold mbind at 1. rewrite E4. cbn [ret].
  exists st4, ws, VUndef. split; [reflexivity|]. split; [exact (wrote_l _ _ _ _ S3 W4)|]. split; [exact T4|congruence].
Qed.

(* (Go) entering a template writes what the subset semantics says, at every call depth *)
Theorem go_call_correct : forall k, go_callee_ok cf (c04_tout (c_ij cf) go_print_text p k) (k * c04_D p).
Proof.
  induction k as [|k IH]; intros name cenv text E; [discriminate|].
  cbn [c04_tout] in E. destruct (c04_find p name) as [t|] eqn:Ef; [|discriminate].
  exists (c04_template t). split; [rewrite Hreg; apply c04_find_template; exact Ef|].
  intros f st cd Hf Hg Hn Hl Hc. pose proof (c04_find_depth p name t Ef) as Hd.
  rewrite Nat.mul_succ_l in Hf. unfold c04_D in Hf at 2.
  destruct f as [|f1]; [lia|].
  unfold call_enter. unfold mbind at 1. cbn [get]. unfold mbind at 1. cbn [modify].
  set (st2 := set_depth (set_mode (set_ctx st (sc_enter cd)) (call_mode (t_ns_autoescape (c04_template t)))) (S (depth_ st))).
  assert (C2 : ctx st2 = sc_enter cd) by reflexivity.
  assert (S2 : wsame st st2) by (repeat split).
  assert (A2 : agrees cenv st2 cenv).
  { split; [intro q; rewrite C2, sc_enter_lookup by exact Hn; apply Hl|rewrite C2; apply sc_enter_dinv; assumption]. }
  destruct (go_template_walk k t f1 st2 cenv text IH ltac:(lia) (wsame_wok _ _ S2 Hg) A2 Hc E) as (st4 & ws & rv & E4 & W4 & T4 & X4).
  rewrite E4.
  eexists _, ws, VUndef. split; [reflexivity|].
  split; [apply (wrote_r _ st4); [exact (wrote_l _ _ _ _ S2 W4)|repeat split]|].
  split; [exact T4|]. split; reflexivity.
Qed.

(* the subset semantics does not distinguish autoescape "unspecified" (0) from "on" (1): both escape (the two print
   functions are convertible) *)
Lemma bout_mode01 ij dv cl env b : bout ij 1 go_print_text dv cl env b = bout ij 0 go_print_text dv cl env b.
Proof. reflexivity. Qed.

(* (Go) the entry point: Renderer.Execute of a template of the program with data (a map of core values) and no write budget
   succeeds and the Write calls it makes concatenate to the text of the subset semantics.  Execute starts in autoescape
   mode "on" when the namespace does not say (entry_mode) while a call inherits "unspecified" -- the mode the generator and
   c04_tout use --: both escape (bout_mode01), so the text is the same *)
Theorem go_render_correct k name t data_id data first_id text fuel :
  c04_find p name = Some t ->
  forallb (fun kv => core_value (snd kv)) data = true ->
  c04_tout (c_ij cf) go_print_text p (S k) name (fun q => assoc_s q data) = Some text ->
  (S k * c04_D p <= fuel)%nat ->
  let r := render cf fuel name data_id data None None first_id in
  rr_outcome r = Ok tt /\ concat_b (rr_writes r) = text.
Proof.
  intros Ef Hcore E Hf. cbn [c04_tout] in E. rewrite Ef in E.
  pose proof (c04_find_depth p name t Ef) as Hd. rewrite Nat.mul_succ_l in Hf. unfold c04_D in Hf at 2.
  destruct fuel as [|f1]; [lia|].
  cbn zeta. unfold render. rewrite Hreg, (c04_find_template p name t Ef).
  set (st0 := init_state (sc_enter (new_scope data_id data)) (entry_mode (t_ns_autoescape (c04_template t))) name None None first_id).
  set (cenv := fun q => assoc_s q data) in *.
  assert (Hc : envok cenv) by (intros q x Hq; exact (core_assoc q data x Hcore Hq)).
  assert (Hl : forall q, sc_lookup (new_scope data_id data) q = cenv q).
  { intro q. unfold new_scope, cenv. cbn [sc_lookup f_vars]. destruct (assoc_s q data); reflexivity. }
  assert (A0 : agrees cenv st0 cenv).
  { split; [intro q; change (ctx st0) with (sc_enter (new_scope data_id data)); rewrite sc_enter_lookup by discriminate; apply Hl|].
    change (ctx st0) with (sc_enter (new_scope data_id data)). apply sc_enter_dinv; [discriminate|exact Hl]. }
  assert (W0 : wok st0) by (unfold wok; cbn; auto).
  assert (E' : bout (c_ij cf) (template_mode (mode st0) (ct_ae t)) go_print_text cenv (c04_tout (c_ij cf) go_print_text p k) cenv (ct_body t) = Some text).
  { change (mode st0) with (entry_mode (ct_ns_ae t)). unfold ct_mode, call_mode in E. unfold template_mode, entry_mode in *.
    destruct (ct_ae t =? 0); [|exact E]. destruct (ct_ns_ae t =? 0) eqn:Z0; [|exact E]. apply N.eqb_eq in Z0. rewrite Z0 in E. rewrite bout_mode01. exact E. }
  destruct (go_template_walk k t f1 st0 cenv text (go_call_correct k) ltac:(lia) W0 A0 Hc E') as (st4 & ws & rv & E4 & W4 & T4 & X4).
  rewrite E4. cbn [rr_outcome rr_writes].
  destruct (wrote_out st0 st4 ws eq_refl W4) as [_ Ho]. rewrite Ho. cbn [out st0 init_state]. rewrite app_nil_r, rev_involutive.
  split; [reflexivity|exact T4].
Qed.

(* ---- the JavaScript side ---- *)
Lemma c04_ginv_init n : ginv c04_body_scope n t_output.
Proof.
  assert (Hl : forall key, jsc_lookup c04_body_scope key = []) by (intro key; reflexivity).
  assert (Hp : forall x, jsc_loop c04_body_scope x = ([], [])) by (intro x; unfold c04_body_scope; rewrite !jsc_loop_push; reflexivity).
  constructor.
  - discriminate.
  - intros key _. rewrite Hl. apply bounded_nil.
  - apply bounded_no_us. cbn. intuition discriminate.
  - intros key _. rewrite Hl. reflexivity.
  - reflexivity.
  - intro x. rewrite Hp. cbn [fst snd]. repeat split; try apply bounded_nil; reflexivity.
Qed.

Lemma c04_env_rel_init cenv jd ijv : datarel cenv jd -> (forall v, c_ij cf = Some v -> ijv = to_js v) ->
  env_rel c04_body_scope (c_ij cf) cenv {| je_vars := [(t_opt_ij, ijv); (t_output, JStr [])]; je_data := jd |}.
Proof.
  intros (D1 & D2 & D3) Hi. constructor.
  - intros key _ _. change (jsc_lookup c04_body_scope key) with (@nil N). cbn [je_data]. unfold env_val. apply D1.
  - intros v Hv. cbn [je_vars]. unfold assoc_s. rewrite bstr_eqb_refl. rewrite (Hi v Hv). reflexivity.
  - intro key. unfold env_val. destruct (cenv key) as [v|] eqn:E; [exact (D2 key v E)|reflexivity].
  - exact Hij.
  - intros x i H. rewrite D3 in H; [discriminate|]. rewrite is_ident_app. replace (is_ident jk_index) with false by reflexivity. apply andb_false_r.
Qed.

(* (JS) the function of a template returns what the subset semantics says, at every call depth, for every table of the
   program's functions (whatever counters they were generated from) *)
Theorem js_call_correct_tbl jp : c04_table_ok p jp ->
  forall k, js_callee_ok (c_ij cf) (c04_tout (c_ij cf) go_print_text p k) (c04_jcall jp k).
Proof.
  intro Htbl. induction k as [|k IH]; intros name cenv text jd ijv E DR Hi; [discriminate|].
  cbn [c04_tout] in E. destruct (c04_find p name) as [t|] eqn:Ef; [|discriminate].
  destruct (Htbl name t Ef) as (nt & Etb).
  cbn [c04_jcall]. rewrite Etb.
  destruct (datarel_obj cenv jd DR) as (m & ->).
  replace (if ct_allopt t then if js_truthy (JObj m) then JObj m else JObj [] else JObj m) with (JObj m) by (destruct (ct_allopt t); reflexivity).
  set (je0 := {| je_vars := [(t_opt_ij, ijv); (t_output, JStr [])]; je_data := JObj m |}).
  unfold c04_jbody. destruct (bgen (ct_mode t) t_output c04_body_scope nt (ct_body t)) as [jb n'] eqn:Eg. cbn [fst].
  destruct (proj1 (proj2 (js_exec_all (c_ij cf) (ct_mode t) cenv _ _ IH)) (ct_body t) t_output c04_body_scope nt cenv je0 [] text jb n'
              (c04_ginv_init _) E (conj (c04_env_rel_init cenv (JObj m) ijv DR Hi) eq_refl) DR Eg) as (je' & X & Hb' & F).
  rewrite X. cbn [bind]. rewrite Hb'. reflexivity.
Qed.
Theorem js_call_correct cnt : forall k, js_callee_ok (c_ij cf) (c04_tout (c_ij cf) go_print_text p k) (c04_jcall (c04_jprog p cnt) k).
Proof. apply js_call_correct_tbl. apply c04_jprog_ok. Qed.
End Prog.

(* ---- the generator: visitTemplate ---- *)
Section TemplateChunks.
Variable o : jopts.
Hypothesis HCN : cn_ok o.
Hypothesis HNB : o_msgs o = None.

Lemma gres_mod_auto a' st i b a s n : shape st i b a s n -> gres o (jmod (set_auto a')) st [] i b a' s n.
Proof. intro H. exists (set_auto a' st). split; [reflexivity|]. destruct st; cbn in *. split; [reflexivity|]. destruct H as (? & ? & ? & ? & ?). repeat split; try assumption; intros _; reflexivity. Qed.
Lemma gres_mod_buf b' st i b a s n : shape st i b a s n -> gres o (jmod (set_buf b')) st [] i b' a s n.
Proof. intro H. exists (set_buf b' st). split; [reflexivity|]. destruct st; cbn in *. split; [reflexivity|]. destruct H as (? & ? & ? & ? & ?). repeat split; try assumption; intros _; reflexivity. Qed.
Lemma gres_mod_infile f st i b a s n : shape st i b a s n -> gres o (jmod (fun x => set_infile (f x) x)) st [] i b a s n.
Proof. intro H. exists (set_infile (f st) st). split; [reflexivity|]. destruct st; cbn in *. split; [reflexivity|]. split; [exact H|reflexivity]. Qed.
Lemma gres_push st i b a s n : shape st i b a s n -> gres o jsc_push st [] i b a ([] :: s) n.
Proof.
  intros (I1 & B1 & A1 & S1 & N1). exists (set_scope ([] :: j_scope st) (j_n st) st). split; [reflexivity|].
  split; [destruct st; reflexivity|]. split; [|destruct st; reflexivity]. unfold shape. cbn [j_indent j_buf j_auto j_scope j_n set_scope]. rewrite S1. repeat split; assumption.
Qed.

Lemma gres_template_head ae st i b a s n : shape st i b a s n ->
  gres o (template_head ae) st (sp_ind i ++ [] ++ [CText t_nl]) i b (template_mode a ae) s n.
Proof.
  intro H. unfold template_head, template_mode. destruct (ae =? 0).
  - eapply gres_eq; [eapply gres_bind; [eapply gres_ret; exact H|intros x Hx; eapply gres_sln; exact Hx]|reflexivity].
  - eapply gres_eq; [eapply gres_bind; [eapply gres_mod_auto; exact H|intros x Hx; eapply gres_sln; exact Hx]|reflexivity].
Qed.
Lemma gres_optline (c : bool) st i b a s n : shape st i b a s n ->
  gres o (if c then jsln [CText t_optdata_init] else jret tt) st (if c then sp_ind i ++ [CText t_optdata_init] ++ [CText t_nl] else []) i b a s n.
Proof. intro H. destruct c; [apply gres_sln; exact H|apply gres_ret; exact H]. Qed.

(* the flag visitTemplate computes from the soydoc node before the template *)
Definition c04_allopt (prev : option (list bool)) : bool :=
  match prev with Some flags => negb (Nat.eqb (length flags) 0) && forallb (fun x => x) flags | None => false end.

Theorem gen_template t lv F st jb n' bf sc n :
  (S (bdepth (ct_body t)) < F)%nat -> bwf lv (ct_body t) = true -> lvok lv ([] :: sc) ->
  shape st 0 bf (ct_ns_ae t) sc n ->
  bgen (ct_mode t) t_output ([] :: [] :: sc) n (ct_body t) = (jb, n') ->
  gres o (jwalk o F (t_node (c04_template t))) st
       (c04_tprint (template_header_line o (ct_name t)) (c04_allopt (j_cur st)) jb) 0 t_output (ct_ns_ae t) sc n'.
Proof.
  intros Hf Hwf Hlv Hs Eg. destruct F as [|F1]; [lia|]. cbn [c04_template t_node].
  eapply gres_walk; [reflexivity|exact Hs|]. intros st1 H1. cbn [jwalk_node]. unfold visit_template.
  eapply gres_step; [reflexivity|split; reflexivity|]. cbn zeta.
  replace (j_auto st1) with (ct_ns_ae t) by (symmetry; apply H1).
  fold (c04_allopt (j_cur st)).
  eapply gres_eq.
  - gstep (gres_template_head (ct_ae t)). gstep gres_sln. unfold template_rest.
    gstep gres_mod_infile. gstep gres_inc. gstep (gres_optline (c04_allopt (j_cur st))). gstep gres_sln. gstep gres_mod_buf. gstep gres_push.
    gstep (gen_nlist o (ct_body t) lv F1); [exact (proj1 (proj2 (sgen_print_all o HCN HNB)) (ct_body t))|lia|].
    gstep gres_sln. gstep gres_dec. gstep gres_sln. gstep gres_mod_auto. eapply gres_pop; eassumption.
  - unfold c04_tprint, sp_ind. destruct (c04_allopt (j_cur st)); repeat rewrite <- app_assoc; cbn [app]; rewrite ?app_nil_r; reflexivity.
Qed.

(* the templates of a file, one after the other: walking the soydoc and template nodes in order emits the function of each
   template from the counter the chain gives it -- the function table c04_jprog_chain -- and ends at the chain's last counter *)
Definition c04_file_chunks (p : list ctmpl) (n : N) : list chunk :=
  flat_map (fun tn => c04_tprint (template_header_line o (ct_name (fst tn))) (ct_allopt (fst tn)) (c04_jbody (fst tn) (snd tn))) (c04_chain p n).
Theorem gen_templates nsae F : forall p n st bf,
  (forall t, In t p -> ct_ns_ae t = nsae /\ (S (S (bdepth (ct_body t))) < F)%nat /\ bwf [] (ct_body t) = true) ->
  shape st 0 bf nsae [[]] n ->
  exists bf' n', gres o (jwalk_list (jwalk o F) (flat_map c04_doc_nodes p)) st (c04_file_chunks p n) 0 bf' nsae [[]] n'.
Proof.
  induction p as [|t r IH]; intros n st bf Hall Hs.
  - exists bf, n. cbn [flat_map jwalk_list c04_file_chunks c04_chain]. apply gres_ret; exact Hs.
  - destruct (Hall t (or_introl eq_refl)) as (Hns & Hd & Hwf). subst nsae.
    destruct F as [|F1]; [lia|].
    cbn [flat_map c04_doc_nodes app jwalk_list]. unfold c04_file_chunks. cbn [c04_chain flat_map fst snd]. fold (c04_file_chunks r (snd (bgen (ct_mode t) t_output c04_body_scope n (ct_body t)))).
    (* the soydoc node: s.node remembers its parameters *)
    set (flags := soydoc_flags (NSoyDoc 0 (if ct_allopt t then [NSoyDocParam 0 [] true] else []))).
    set (st1 := jset_cur flags st).
    assert (E1 : jwalk o (S F1) (NSoyDoc 0 (if ct_allopt t then [NSoyDocParam 0 [] true] else [])) st = Ok (tt, st1)) by (rewrite jwalk_S; reflexivity).
    assert (H1 : shape st1 0 bf (ct_ns_ae t) [[]] n) by (subst st1; destruct st; exact Hs).
    assert (O1 : j_out st1 = j_out st) by (subst st1; destruct st; reflexivity).
    assert (Hao : c04_allopt (j_cur st1) = ct_allopt t).
    { subst st1 flags. destruct st. unfold jset_cur. cbn. destruct (ct_allopt t); reflexivity. }
    destruct (bgen (ct_mode t) t_output c04_body_scope n (ct_body t)) as [jb n1] eqn:Eg.
    pose proof (gen_template t [] (S F1) st1 jb n1 bf [[]] n ltac:(lia) Hwf ltac:(intros x Hx; discriminate Hx) H1 Eg) as G2. rewrite Hao in G2.
    change (NTemplate 0 (ct_name t) (NList 0 (bnodes (ct_body t))) (ct_ae t) false) with (t_node (c04_template t)).
    destruct G2 as (st2 & E2 & O2 & H2 & C2).
    destruct (IH n1 st2 t_output (fun t' Ht' => Hall t' (or_intror Ht')) H2) as (bf' & n' & (st3 & E3 & O3 & H3 & C3)).
    assert (C1 : j_called st1 = j_called st) by (subst st1; destruct st; reflexivity).
    exists bf', n', st3. rewrite (jbind_ok _ _ _ _ _ E1), (jbind_ok _ _ _ _ _ E2). split; [exact E3|].
    split; [|split; [exact H3|intro HF; rewrite (C3 HF), (C2 HF); exact C1]].
    cbn [snd]. unfold c04_jbody at 1. rewrite Eg. cbn [fst]. rewrite O3, O2, O1, rev_app_distr, app_assoc. reflexivity.
Qed.
End TemplateChunks.

(* ---- a template of a program built from the proved stages: the three sides together ---- *)
Theorem gen_correct_partial_template cf o p cnt :
  c_oblig cf = [] -> (forall x, c_ij cf = Some x -> core_value x = true) -> r_templates (c_reg cf) = c04_templates p -> cn_ok o -> o_msgs o = None ->
  forall k name cenv text, c04_tout (c_ij cf) go_print_text p k name cenv = Some text ->
  exists t, c04_find p name = Some t
  /\ (* Go: evalCall / Execute entering the template *)
     (envok cenv -> forall f st cd, (k * c04_D p <= f)%nat -> wok st -> cd <> [] -> (forall q, sc_lookup cd q = cenv q) ->
        exists st' ws rv, call_enter (walk cf f) (c04_template t) cd st = (Ok rv, st') /\ wrote st st' ws /\ concat_b ws = text
                          /\ mode st' = mode st /\ ctx st' = ctx st)
  /\ (* JS: the function of the template in the generated file *)
     (forall jd ijv, datarel cenv jd -> (forall v, c_ij cf = Some v -> ijv = to_js v) ->
        c04_jcall (c04_jprog p cnt) k name jd ijv = Ok text)
  /\ (* Gen: that function is what visitTemplate writes, from the counter cnt name *)
     (forall F st bf, (S (bdepth (ct_body t)) < F)%nat -> bwf [] (ct_body t) = true ->
        shape st 0 bf (ct_ns_ae t) [[]] (cnt name) -> c04_allopt (j_cur st) = ct_allopt t ->
        gres o (jwalk o F (t_node (c04_template t))) st
             (c04_tprint (template_header_line o name) (ct_allopt t) (c04_jbody t (cnt name))) 0 t_output (ct_ns_ae t) [[]]
             (snd (bgen (ct_mode t) t_output c04_body_scope (cnt name) (ct_body t)))).
Proof.
  intros Hob Hij Hreg HCN HNB k name cenv text E.
  assert (Ht : exists t, c04_find p name = Some t).
  { destruct k as [|k]; [discriminate|]. cbn [c04_tout] in E. destruct (c04_find p name) as [t|]; [eauto|discriminate]. }
  destruct Ht as (t & Ef). exists t. split; [exact Ef|]. pose proof (c04_find_name p name t Ef) as Hname. split; [|split].
  - intros Hc f st cd Hf Hg Hn Hl.
    destruct (go_call_correct cf p Hob Hij Hreg k name cenv text E) as (t0 & Ft & Hrun).
    rewrite Hreg, (c04_find_template p name t Ef) in Ft. inversion Ft; subst t0. exact (Hrun f st cd Hf Hg Hn Hl Hc).
  - intros jd ijv DR Hi. exact (js_call_correct cf p Hij cnt k name cenv text jd ijv E DR Hi).
  - intros F st bf Hf Hwf Hs Hao. subst name. unfold c04_jbody.
    destruct (bgen (ct_mode t) t_output c04_body_scope (cnt (ct_name t)) (ct_body t)) as [jb n'] eqn:Eg. cbn [fst snd].
    rewrite <- Hao.
    apply (gen_template o HCN HNB t [] F st jb n' bf [[]] (cnt (ct_name t)) Hf Hwf); [intros x Hx; discriminate Hx|exact Hs|exact Eg].
Qed.
