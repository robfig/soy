(* C06 for the JavaScript generator: the walker's budget is only an approximation index.  [jwalk o f] approximates
   [jwalk o (f + k)]: an answer other than OutOfFuel obtained with some budget is the answer -- same chunks, same
   error -- with every larger budget.  With Proofs/SafetyJsFuel.v: for every budget from the height of the tree on,
   [gen_file] gives one and the same answer.

   [japx m1 m2] = on every state, [m1] is OutOfFuel or the two agree: an instance of [jlogic] (Proofs/SafetyJsFuel.v). *)
From Coq Require Import Lia List.
Import ListNotations.
From Soy Require Import Model.Bytes Model.Num Model.Values Model.Outcome Model.Ast Model.Utf8 Model.JsEscape
  Generated.Tables Model.JsGen Spec.SafetyJs Proofs.SafetyJsFuel.
Open Scope N_scope.

Definition japx {A} (m1 m2 : J A) : Prop := forall st, m1 st = OutOfFuel \/ m1 st = m2 st.

Lemma japx_refl {A} (m : J A) : japx m m.
Proof. intros st. right. reflexivity. Qed.

Lemma japx_bind {A B} (m1 m2 : J A) (f1 f2 : A -> J B) :
  japx m1 m2 -> (forall x, japx (f1 x) (f2 x)) -> japx (jbind m1 f1) (jbind m2 f2).
Proof.
  intros Hm Hf st. unfold jbind. destruct (Hm st) as [E|E].
  - left. rewrite E. reflexivity.
  - rewrite E. destruct (m2 st) as [[x st']| | | | |]; try (right; reflexivity). apply Hf.
Qed.

Lemma japx_logic : jlogic True (fun A _ _ m1 m2 => japx m1 m2).
Proof.
  constructor.
  - intros A _ _ m _. apply japx_refl.
  - intros A B _ _ _ m1 m2 f1 f2. apply japx_bind.
  - intros A B _ _ _ R m f1 f2 _ HR Hf st. unfold jbind.
    destruct (m st) as [[x st']| | | | |] eqn:E; try (right; reflexivity). exact (Hf x (HR _ _ _ E) st').
  - intros _ w1 w2 n Hw st. unfold jblock, jbind, jget. cbv beta iota zeta.
    match goal with |- context [w1 n ?sub] => destruct (Hw sub) as [E|E]; rewrite E end; [left | right]; reflexivity.
  - intros _ A _ _. apply japx_refl.
Qed.

Lemma ap_walk_body o (w1 w2 : node -> J unit) :
  (forall n, japx (w1 n) (w2 n)) -> forall n, japx (jwalk_body o w1 n) (jwalk_body o w2 n).
Proof.
  intros Hw n. apply (phi_walk_body o _ _ japx_logic w1 w2 (pred (jw_height n)) (fun _ n' _ => Hw n') 0%nat). lia.
Qed.

Theorem jwalk_approx o : forall f k n, japx (jwalk o f n) (jwalk o (f + k) n).
Proof.
  induction f as [|f IH]; intros k n; [intros st; left; reflexivity|].
  cbn [jwalk Nat.add]. apply ap_walk_body. intros n'. apply IH.
Qed.

Theorem gen_file_fuel_monotone o f k name body :
  gen_file o f name body <> OutOfFuel -> gen_file o (f + k) name body = gen_file o f name body.
Proof.
  unfold gen_file, visit_file. intros H.
  destruct (phi_file _ _ japx_logic (jwalk o f) (jwalk o (f + k)) (jw_hmax body) (fun _ n _ => jwalk_approx o f k n) 0%nat name body
              (le_n _) jinit_state) as [E|E].
  - rewrite E in H. congruence.
  - rewrite <- E. reflexivity.
Qed.

(* from the height of the tree on, the answer does not depend on the budget *)
Theorem gen_file_fuel_independent o f1 f2 name body :
  (jw_hmax body <= f1)%nat -> (jw_hmax body <= f2)%nat -> gen_file o f1 name body = gen_file o f2 name body.
Proof.
  intros H1 H2.
  assert (G : forall f, (jw_hmax body <= f)%nat -> gen_file o f name body = gen_file o (jw_hmax body) name body).
  { intros f Hf. replace f with (jw_hmax body + (f - jw_hmax body))%nat by lia.
    apply gen_file_fuel_monotone. apply gen_file_fuel. lia. }
  rewrite (G f1 H1), (G f2 H2). reflexivity.
Qed.
