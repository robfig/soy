(* C16: proofs about the encoding directives (Model/Directives.v,
   Model/JsEscape.v) against the Spec decoders (Spec/Codec.v). *)
From Coq Require Import Lia ZifyBool.
From Soy Require Import Model.Bytes Generated.Tables Model.Utf8 Model.Outcome Model.Escape Model.Directives Model.JsEscape
  Spec.Html Spec.Codec Proofs.Utf8Proofs.
From Soy Require Export Proofs.BytesBase.
Open Scope N_scope.
(* makes lia treat Z.div and Z.modulo (by their defining equations), here and in every file that imports this one *)
Ltac Zify.zify_post_hook ::= Z.div_mod_to_equations.

(* [red_consts]: replace every comparison of two closed numbers in the goal by its boolean value *)
Ltac red_consts := repeat match goal with
  | |- context[N.eqb ?a ?c] => let v := eval vm_compute in (N.eqb a c) in
        match v with true => change (N.eqb a c) with true | false => change (N.eqb a c) with false end
  | |- context[N.ltb ?a ?c] => let v := eval vm_compute in (N.ltb a c) in
        match v with true => change (N.ltb a c) with true | false => change (N.ltb a c) with false end
  | |- context[N.leb ?a ?c] => let v := eval vm_compute in (N.leb a c) in
        match v with true => change (N.leb a c) with true | false => change (N.leb a c) with false end
  end.

(* a loop that carries the number of bytes still to skip -- the rest of a rune or of an escape already
   handled -- passes over exactly that many *)
Lemma skip_app {A} (F : nat -> bstr -> A) (pre X : bstr) :
  (forall k c r, F (S k) (c :: r) = F k r) -> F (length pre) (pre ++ X) = F 0%nat X.
Proof. intros HF. induction pre as [|c pre IH]; [reflexivity|]. cbn [length app]. rewrite HF. exact IH. Qed.

Lemma hexval_hexdigit n : n < 16 -> hexval (hexdigit n) = Some n.
Proof. intros H. unfold hexval, hexdigit, in_range. brk; try (f_equal; lia); try lia. Qed.

Lemma hexval_hexdigit_lc n : n < 16 -> hexval (hexdigit_lc n) = Some n.
Proof. intros H. unfold hexval, hexdigit_lc, in_range. brk; try (f_equal; lia); try lia. Qed.

Lemma hexval2_hexdigit c : c < 256 -> hexval2 (hexdigit (c / 16)) (hexdigit (c mod 16)) = Some c.
Proof. intros H. unfold hexval2. rewrite !hexval_hexdigit by lia. f_equal. lia. Qed.

Lemma hexval2_hexdigit_lc c : c < 256 -> hexval2 (hexdigit_lc (c / 16)) (hexdigit_lc (c mod 16)) = Some c.
Proof. intros H. unfold hexval2. rewrite !hexval_hexdigit_lc by lia. f_equal. lia. Qed.

Theorem uri_roundtrip s : Forall (fun c => c < 256) s -> pct_decode (escape_uri s) = Some s.
Proof.
  induction 1 as [|c r Hc Hr IH]; [reflexivity|].
  cbn [escape_uri]. destruct (uri_unreserved c) eqn:Eu.
  - cbn [pct_decode]. unfold uri_unreserved, in_range, mem in Eu. cbn [existsb] in Eu.
    destruct (N.eqb_spec c 37); [lia|]. destruct (N.eqb_spec c 43); [lia|]. rewrite IH. reflexivity.
  - destruct (N.eqb_spec c 32) as [->|Hn].
    + cbn [pct_decode]. red_consts. cbv iota. rewrite IH. reflexivity.
    + cbn [pct_decode]. red_consts. cbv iota. rewrite hexval2_hexdigit by lia. rewrite IH. reflexivity.
Qed.

Lemma hexdigit_safe n : n < 16 -> uri_safe_byte (hexdigit n) = true.
Proof. intros H. unfold uri_safe_byte, hexdigit, in_range, mem. cbn [existsb]. brk; lia. Qed.

Theorem uri_safe_alphabet s : Forall (fun c => c < 256) s -> Forall (fun c => uri_safe_byte c = true) (escape_uri s).
Proof.
  induction 1 as [|c r Hc Hr IH]; [constructor|].
  cbn [escape_uri]. destruct (uri_unreserved c) eqn:Eu.
  - constructor; [|exact IH]. unfold uri_unreserved, uri_safe_byte, in_range, mem in *. cbn [existsb] in *. lia.
  - destruct (N.eqb_spec c 32) as [->|Hn]; repeat constructor; try exact IH; try (apply hexdigit_safe; lia).
Qed.

(* what the loop of truncate returns when started at [n] inside the string with enough fuel: the last
   rune start at or before n, or an error when there is none (the Go loop runs off the front) *)
Definition brs_post (s : bstr) (n : Z) (r : outcome Z) : Prop :=
  match r with
  | Ok m => (0 <= m <= n)%Z /\ (exists c, nth_error s (Z.to_nat m) = Some c /\ rune_start c = true)
            /\ (forall i, (Z.to_nat m < i <= Z.to_nat n)%nat -> exists c, nth_error s i = Some c /\ is_cont c = true)
  | Err _ => (n < 0)%Z \/ (forall i, (i <= Z.to_nat n)%nat -> exists c, nth_error s i = Some c /\ is_cont c = true)
  | _ => False
  end.

Lemma brs_spec fuel : forall s n, (n < Z.of_nat (length s))%Z -> (n < Z.of_nat fuel)%Z ->
  brs_post s n (back_to_rune_start fuel s n).
Proof.
  unfold brs_post. induction fuel as [|f IH]; intros s n Hlen Hfuel.
  - cbn [back_to_rune_start]. destruct (n <? 0)%Z eqn:E; [left; lia|lia].
  - cbn [back_to_rune_start]. destruct (n <? 0)%Z eqn:E; [left; lia|].
    destruct (nth_error s (Z.to_nat n)) as [c|] eqn:En.
    2:{ apply nth_error_None in En. lia. }
    destruct (rune_start c) eqn:Ers.
    + split; [lia|]. split; [eauto|]. intros i Hi. lia.
    + assert (is_cont c = true) as Hcc by (unfold rune_start in Ers; destruct (is_cont c); [reflexivity|discriminate]).
      specialize (IH s (n - 1)%Z ltac:(lia) ltac:(lia)).
      destruct (back_to_rune_start f s (n - 1)) as [m|m|m| | |]; try exact IH.
      * destruct IH as (Hm & Hc & Hbetween). split; [lia|]. split; [exact Hc|].
        intros i Hi. destruct (Nat.eq_dec i (Z.to_nat n)) as [->|Hne]; [eauto|].
        apply Hbetween. lia.
      * right. intros i Hi. destruct (Nat.eq_dec i (Z.to_nat n)) as [->|Hne]; [eauto|].
        destruct IH as [IH|IH]; [assert (n = 0)%Z by lia; subst n; cbn in *; lia|]. apply IH. lia.
Qed.

(* the limit actually applied and whether the ellipsis is appended *)
Definition trunc_cut (n : Z) (e : bool) : Z := if e && (n >? 3)%Z then (n - 3)%Z else n.
Definition trunc_ell (n : Z) (e : bool) : bool := e && (n >? 3)%Z.

Lemma trunc_cut_le n e : (trunc_cut n e <= n)%Z.
Proof. unfold trunc_cut. destruct (e && (n >? 3)%Z); lia. Qed.

Lemma trunc_cut_neg n e : (trunc_cut n e < 0 <-> n < 0)%Z.
Proof. unfold trunc_cut. destruct (e && (n >? 3)%Z) eqn:E; lia. Qed.

Lemma truncate_unfold s n e : (n < Z.of_nat (length s))%Z ->
  truncate s n e = (m <- back_to_rune_start (length s) s (trunc_cut n e) ;;
                    Ok (take (Z.to_nat m) s ++ (if trunc_ell n e then dots else []))).
Proof.
  intros H. unfold truncate, trunc_cut, trunc_ell.
  destruct (Z.of_nat (length s) <=? n)%Z eqn:E; [lia|].
  destruct e; cbn [andb]; [destruct (n >? 3)%Z|]; reflexivity.
Qed.

Lemma brs_cut s n e : (n < Z.of_nat (length s))%Z ->
  brs_post s (trunc_cut n e) (back_to_rune_start (length s) s (trunc_cut n e)).
Proof. intros H. pose proof (trunc_cut_le n e). apply brs_spec; lia. Qed.

Theorem truncate_fits s n e : (Z.of_nat (length s) <= n)%Z -> truncate s n e = Ok s.
Proof. intros H. unfold truncate. destruct (Z.of_nat (length s) <=? n)%Z eqn:E; [reflexivity|lia]. Qed.

Lemma dots_valid : utf8_valid dots = true.
Proof. vm_compute. reflexivity. Qed.

Theorem truncate_cut s n e out : (n < Z.of_nat (length s))%Z -> truncate s n e = Ok out ->
  exists k c,
    out = take k s ++ (if trunc_ell n e then dots else [])
    /\ (Z.of_nat (length out) <= n)%Z /\ (0 <= n)%Z
    /\ nth_error s k = Some c /\ rune_start c = true
    /\ (Z.of_nat k <= trunc_cut n e)%Z
    /\ (forall i, (k < i <= Z.to_nat (trunc_cut n e))%nat -> exists c', nth_error s i = Some c' /\ is_cont c' = true)
    /\ (utf8_valid s = true -> utf8_valid out = true).
Proof.
  intros Hlen Ht. rewrite truncate_unfold in Ht by exact Hlen. pose proof (brs_cut s n e Hlen) as Hb.
  destruct (back_to_rune_start (length s) s (trunc_cut n e)) as [m|m|m| | |]; cbn [bind] in Ht; try discriminate.
  injection Ht as <-. destruct Hb as (Hm & (c & Hc & Hrs) & Hbetween).
  assert (Z.to_nat m < length s)%nat as Hml by (apply nth_error_Some; congruence).
  exists (Z.to_nat m), c. split; [reflexivity|]. split.
  { rewrite app_length, take_length by lia. unfold trunc_cut, trunc_ell in *.
    destruct (e && (n >? 3)%Z); cbn [length dots]; lia. }
  split; [pose proof (trunc_cut_le n e); lia|].
  split; [exact Hc|]. split; [exact Hrs|]. split; [lia|]. split; [exact Hbetween|].
  intros Hv. apply utf8_valid_app.
  - eapply utf8_valid_take; eauto.
  - destruct (trunc_ell n e); [exact dots_valid|reflexivity].
Qed.

(* the result is Ok or Err, never a crash / divergence / fuel exhaustion, and
   Err exactly for a negative limit or when every byte up to the cut is a
   continuation byte (the Go loop runs off the front of the string) *)
Theorem truncate_total s n e : (n < Z.of_nat (length s))%Z ->
  (exists out, truncate s n e = Ok out) \/ (exists m, truncate s n e = Err m).
Proof.
  intros Hlen. rewrite truncate_unfold by exact Hlen. pose proof (brs_cut s n e Hlen) as Hb.
  destruct (back_to_rune_start (length s) s (trunc_cut n e)) as [m|m|m| | |]; cbn [bind]; try contradiction; eauto.
Qed.

Theorem truncate_err_when s n e : (n < Z.of_nat (length s))%Z ->
  ((exists m, truncate s n e = Err m) <->
   ((n < 0)%Z \/ forall i, (i <= Z.to_nat (trunc_cut n e))%nat -> exists c, nth_error s i = Some c /\ is_cont c = true)).
Proof.
  intros Hlen. rewrite truncate_unfold by exact Hlen. pose proof (brs_cut s n e Hlen) as Hb.
  pose proof (trunc_cut_neg n e) as Hneg.
  destruct (back_to_rune_start (length s) s (trunc_cut n e)) as [m|m|m| | |]; cbn [bind]; try contradiction.
  - split; [intros [x Hx]; discriminate|].
    destruct Hb as (Hm & (c & Hc & Hrs) & _). intros [Hn|Hall]; [lia|].
    destruct (Hall (Z.to_nat m) ltac:(lia)) as (c' & Hc' & Hcont). rewrite Hc in Hc'. injection Hc' as <-.
    unfold rune_start in Hrs. rewrite Hcont in Hrs. discriminate.
  - split; [intros _|eauto]. destruct Hb as [Hb|Hb]; [left; lia|right; exact Hb].
Qed.

Lemma remove_tok_tok c tk X : remove_tok (c :: tk) ((c :: tk) ++ X) = remove_tok (c :: tk) X.
Proof.
  unfold remove_tok. cbn [app remove_tok_aux].
  change (c :: tk ++ X) with ((c :: tk) ++ X). rewrite is_prefix_app_self.
  apply (skip_app (remove_tok_aux (c :: tk))). reflexivity.
Qed.

Lemma remove_tok_other c tk d X : d <> c -> remove_tok (c :: tk) (d :: X) = d :: remove_tok (c :: tk) X.
Proof.
  intros H. unfold remove_tok. cbn [remove_tok_aux is_prefix].
  destruct (N.eqb_spec c d); [congruence|]. reflexivity.
Qed.

Lemma remove_tok_others c tk e X : Forall (fun d => d <> c) e ->
  remove_tok (c :: tk) (e ++ X) = e ++ remove_tok (c :: tk) X.
Proof.
  induction 1 as [|d e Hd He IH]; [reflexivity|]. cbn [app]. rewrite remove_tok_other by exact Hd. rewrite IH. reflexivity.
Qed.

Lemma remove_tok_nil tok : remove_tok tok [] = [].
Proof. reflexivity. Qed.

Lemma esc1_no_lt c : Forall (fun d => d <> 60) (esc1 c).
Proof. unfold esc1, tmpl_entity. brk; repeat constructor; try discriminate; lia. Qed.

Lemma esc1_no_newline c : c <> 10 -> c <> 13 -> Forall (fun d => d <> 10 /\ d <> 13) (esc1 c).
Proof. intros. unfold esc1, tmpl_entity. brk; repeat constructor; try discriminate; lia. Qed.

Lemma tmpl_entity_high c : 128 <= c -> tmpl_entity c = None.
Proof. intros. unfold tmpl_entity. brk; try lia. reflexivity. Qed.

Lemma tmpl_html_escape_cons c r : tmpl_html_escape (c :: r) = esc1 c ++ tmpl_html_escape r.
Proof. cbn [tmpl_html_escape]. unfold esc1. destruct (tmpl_entity c); reflexivity. Qed.

Lemma tmpl_html_escape_no_lt s : Forall (fun d => d <> 60) (tmpl_html_escape s).
Proof.
  induction s as [|c r IH]; [constructor|]. rewrite tmpl_html_escape_cons.
  apply Forall_app. split; [apply esc1_no_lt|exact IH].
Qed.

Lemma remove_newlines_app_nonl e X : Forall (fun d => d <> 10 /\ d <> 13) e ->
  remove_newlines (e ++ X) = e ++ remove_newlines X.
Proof.
  induction 1 as [|d e [H1 H2] He IH]; [reflexivity|]. cbn [app remove_newlines].
  destruct (N.eqb_spec d 10); [congruence|]. destruct (N.eqb_spec d 13); [congruence|]. cbn [orb]. rewrite IH. reflexivity.
Qed.

Lemma remove_newlines_escape s : remove_newlines (tmpl_html_escape s) = tmpl_html_escape (remove_newlines s).
Proof.
  induction s as [|c r IH]; [reflexivity|]. cbn [remove_newlines].
  destruct (N.eqb_spec c 10) as [->|H10]; [exact IH|]. destruct (N.eqb_spec c 13) as [->|H13]; [exact IH|].
  cbn [orb]. rewrite !tmpl_html_escape_cons, <- IH. apply remove_newlines_app_nonl, esc1_no_newline; assumption.
Qed.

Lemma remove_br_br X : remove_tok br (br ++ X) = remove_tok br X.
Proof. apply (remove_tok_tok 60). Qed.

(* nl2br (13 :: 10 :: r) steps over two bytes: the hypothesis for 10 :: r is the one for r *)
Lemma nl2br_only t : Forall (fun d => d <> 60) t -> remove_tok br (nl2br t) = remove_newlines t.
Proof.
  induction 1 as [|c r Hc Hr IH]; [reflexivity|]. cbn [nl2br remove_newlines].
  destruct (N.eqb_spec c 13) as [->|H13]; [|destruct (N.eqb_spec c 10) as [->|H10]]; cbn [orb].
  - destruct r as [|c2 r2]; [reflexivity|]. destruct (N.eqb_spec c2 10) as [->|H10].
    + cbn [nl2br remove_newlines] in IH. red_consts. cbn [orb] in IH. cbv iota in IH. exact IH.
    + rewrite remove_br_br. exact IH.
  - rewrite remove_br_br. exact IH.
  - rewrite <- IH. apply (remove_tok_other 60), Hc.
Qed.

Lemma nl2br_only_aux n t : (length t <= n)%nat -> Forall (fun d => d <> 60) t ->
  remove_tok br (nl2br t) = remove_newlines t.
Proof. intros _. apply nl2br_only. Qed.

Theorem br_only s : remove_tok br (change_newline_to_br s) = tmpl_html_escape (remove_newlines s).
Proof.
  unfold change_newline_to_br. rewrite nl2br_only by apply tmpl_html_escape_no_lt. apply remove_newlines_escape.
Qed.

Theorem br_no_newline s : Forall (fun d => d <> 10 /\ d <> 13) (change_newline_to_br s).
Proof.
  unfold change_newline_to_br. generalize (tmpl_html_escape s) as t.
  assert (Forall (fun d => d <> 10 /\ d <> 13) br) as Hbr by (repeat constructor; lia).
  induction t as [|c r IH]; [constructor|]. cbn [nl2br].
  destruct (N.eqb_spec c 13) as [->|H13]; [|destruct (N.eqb_spec c 10) as [->|H10]].
  - destruct r as [|c2 r2]; [exact Hbr|]. destruct (N.eqb_spec c2 10) as [->|H10].
    + exact IH.
    + apply Forall_app; split; assumption.
  - apply Forall_app; split; assumption.
  - constructor; [split; assumption|exact IH].
Qed.

Lemma remove_wbr_wbr X : remove_tok wbr (wbr ++ X) = remove_tok wbr X.
Proof. apply (remove_tok_tok 60). Qed.

Lemma remove_wbr_esc1 c X : remove_tok wbr (esc1 c ++ X) = esc1 c ++ remove_tok wbr X.
Proof. apply (remove_tok_others 60), esc1_no_lt. Qed.

Lemma iwb_only_aux maxc s : forall chars skip, remove_tok wbr (iwb_aux maxc chars skip s) = tmpl_html_escape s.
Proof.
  induction s as [|c r IH]; intros chars skip; [reflexivity|].
  rewrite tmpl_html_escape_cons. cbn [iwb_aux].
  destruct skip as [|k]; [destruct (c =? 32); [|destruct (chars >=? maxc)%Z; [rewrite remove_wbr_wbr|]]|];
    rewrite remove_wbr_esc1, IH; reflexivity.
Qed.

Theorem wbr_only s n : remove_tok wbr (insert_word_breaks s n) = tmpl_html_escape s.
Proof. apply iwb_only_aux. Qed.

(* no <wbr> inside a character reference: the output is a concatenation of
   units, each either the markup or the whole escaped image of one input byte *)
Definition iwb_unit (u : bstr) : Prop := u = wbr \/ exists c, u = esc1 c.

Lemma esc1_not_wbr c : bstr_eqb (esc1 c) wbr = false.
Proof.
  pose proof (esc1_no_lt c) as Hn. unfold wbr. destruct Hn as [|d e Hd _]; [reflexivity|].
  cbn [bstr_eqb]. destruct (N.eqb_spec d 60); [congruence|reflexivity].
Qed.

Lemma iwb_units_aux maxc s : forall chars skip, exists us, Forall iwb_unit us /\ iwb_aux maxc chars skip s = concat_b us
  /\ concat_b (filter (fun u => negb (bstr_eqb u wbr)) us) = tmpl_html_escape s.
Proof.
  induction s as [|c r IH]; intros chars skip; [exists []; repeat split; constructor|].
  assert (forall chars' skip', exists us, Forall iwb_unit us /\ esc1 c ++ iwb_aux maxc chars' skip' r = concat_b us
       /\ concat_b (filter (fun u => negb (bstr_eqb u wbr)) us) = tmpl_html_escape (c :: r)) as Hstep.
  { intros chars' skip'. destruct (IH chars' skip') as (us & Hus & Heq & Hf). exists (esc1 c :: us).
    split; [constructor; [right; eauto|exact Hus]|]. cbn [concat_b filter]. rewrite esc1_not_wbr. cbn [negb concat_b].
    rewrite Heq, Hf, tmpl_html_escape_cons. auto. }
  cbn [iwb_aux]. destruct skip as [|k]; [destruct (c =? 32); [|destruct (chars >=? maxc)%Z]|]; try apply Hstep.
  destruct (Hstep 1%Z (Nat.pred (rune_width (c :: r)))) as (us & H1 & H2 & H3).
  exists (wbr :: us). split; [constructor; [left; reflexivity|exact H1]|]. cbn [concat_b filter]. rewrite H2.
  replace (bstr_eqb wbr wbr) with true by reflexivity. auto.
Qed.

Theorem wbr_units s n : exists us, Forall iwb_unit us /\ insert_word_breaks s n = concat_b us
  /\ concat_b (filter (fun u => negb (bstr_eqb u wbr)) us) = tmpl_html_escape s.
Proof. apply iwb_units_aux. Qed.

Lemma hexval4_hex4 r : r < 65536 ->
  hexval4 (hexdigit ((r / 4096) mod 16)) (hexdigit ((r / 256) mod 16)) (hexdigit ((r / 16) mod 16)) (hexdigit (r mod 16)) = Some r.
Proof.
  intros H. unfold hexval4, hexval2. rewrite !hexval_hexdigit by lia. f_equal. lia.
Qed.

Lemma emit_unit_scalar v : valid_scalar v -> emit_tok None (TUnit v) = (encode_rune v, None).
Proof.
  intros Hv. unfold valid_scalar in Hv. unfold emit_tok, is_high, in_range.
  destruct ((55296 <=? v) && (v <=? 56319)) eqn:E; [lia|reflexivity].
Qed.

Lemma encode_rune_ascii c : c < 128 -> encode_rune c = [c].
Proof. intros H. unfold encode_rune. destruct (c <? 128) eqn:E; [reflexivity|lia]. Qed.

Lemma valid_scalar_small c : c < 55296 -> valid_scalar c.
Proof. intros; left; assumption. Qed.

Lemma runes_rune r X : valid_scalar r -> runes (encode_rune r ++ X) = r :: runes X.
Proof.
  intros Hv. pose proof (decode_encode r X Hv) as Hd.
  destruct (encode_rune_shape r Hv) as (c0 & tl & E & _).
  unfold runes. rewrite E in *. cbn [app runes_aux]. cbn [app] in Hd. rewrite Hd.
  cbn [length Nat.pred]. f_equal. apply (skip_app runes_aux). reflexivity.
Qed.

Lemma encode_rune_high r : valid_scalar r -> 128 <= r ->
  exists c0 tl, encode_rune r = c0 :: tl /\ 128 <= c0 /\ rune_start c0 = true /\ Forall (fun c => is_cont c = true) tl.
Proof.
  intros Hv Hr. destruct (encode_rune_shape r Hv) as (c0 & tl & E & Hs0 & Htl & _ & Hlow & _).
  exists c0, tl. repeat split; try assumption. lia.
Qed.

(* how an encoder loop meets a rune >= 0x80 at the head of its input: a first byte >= 0x80, the rune and its
   width decoded, and the bytes it takes *)
Lemma rune_at_head r X : valid_scalar r -> 128 <= r ->
  exists c0 tl, encode_rune r = c0 :: tl /\ (c0 <? 128) = false /\
    decode_rune (c0 :: tl ++ X) = (r, S (length tl)) /\ take (S (length tl)) (c0 :: tl ++ X) = encode_rune r.
Proof.
  intros Hv Hr. pose proof (decode_encode r X Hv) as Hd.
  destruct (encode_rune_high r Hv Hr) as (c0 & tl & E & Hc0 & _). rewrite E in *. exists c0, tl.
  split; [reflexivity|]. split; [lia|]. split; [exact Hd|]. apply (take_app_len (c0 :: tl)).
Qed.

(* a three-byte encoding that starts with E2: the only place U+2028/U+2029 can hide *)
Lemma enc_226 r tl : valid_scalar r -> encode_rune r = 226 :: tl ->
  exists b1 b2, tl = [b1; b2] /\ ((b1 = 128 /\ (b2 = 168 \/ b2 = 169)) -> (r = 8232 \/ r = 8233)).
Proof.
  intros Hv. unfold valid_scalar in Hv. unfold encode_rune, in_range.
  brk1; [|brk1; [|brk1; [lia|brk1]]]; intros H; injection H as H0 Htl; try lia.
  subst tl. eexists; eexists; split; [reflexivity|]. intros [H1 H2]. lia.
Qed.

(* an encoder that writes [piece r] for every rune, a reader that reads [piece r] back as the rune: on valid
   UTF-8 the reader inverts the encoder, whatever text [T] follows *)
Lemma runewise_roundtrip (enc : bstr -> bstr) (rd : bstr -> option bstr) (piece : N -> bstr) (ok : N -> Prop) T :
  enc [] = [] ->
  (forall r X, valid_scalar r -> enc (encode_rune r ++ X) = piece r ++ enc X) ->
  (forall r Y, valid_scalar r -> ok r -> rd (piece r ++ Y) = option_map (app (encode_rune r)) (rd Y)) ->
  forall s, utf8_valid s = true -> Forall ok (runes s) -> rd (enc s ++ T) = option_map (app s) (rd T).
Proof.
  intros H0 Henc Hrd. apply (utf8_valid_ind (fun s => Forall ok (runes s) -> rd (enc s ++ T) = option_map (app s) (rd T))).
  - intros _. rewrite H0. cbn [app]. destruct (rd T); reflexivity.
  - intros r X Hv _ IH Hg. rewrite runes_rune in Hg by exact Hv. apply Forall_cons_iff in Hg as [Hr Hg].
    rewrite Henc, <- app_assoc, Hrd, IH by assumption. destruct (rd T); cbn [option_map]; [rewrite app_assoc|]; reflexivity.
Qed.

(* [rd] is js_read_aux q or json_read_aux, [tok] its tokenizer; [live c]: a head byte c does not end the text *)
Section Reader.
  Variable tok : bstr -> option (jtok * nat).
  Variable rd : nat -> option N -> bstr -> option bstr.
  Variable live : N -> Prop.
  Hypothesis rd_skip : forall hi k c r, rd (S k) hi (c :: r) = rd k hi r.
  Hypothesis rd_tok : forall hi c r t n out hi', live c -> tok (c :: r) = Some (t, n) -> emit_tok hi t = (out, hi') ->
    rd 0%nat hi (c :: r) = option_map (app out) (rd (pred n) hi' r).

  Lemma rd_step hi t c p X out hi' : live c -> tok (c :: p ++ X) = Some (t, S (length p)) -> emit_tok hi t = (out, hi') ->
    rd 0%nat hi (c :: p ++ X) = option_map (app out) (rd 0%nat hi' X).
  Proof.
    intros Hc Ht He. rewrite (rd_tok hi c _ t _ out hi' Hc Ht He). cbn [Nat.pred]. f_equal.
    apply (skip_app (fun k => rd k hi')), rd_skip.
  Qed.

  Lemma rd_unit v p Y : live 92 -> tok (92 :: p ++ Y) = Some (TUnit v, S (length p)) -> valid_scalar v ->
    rd 0%nat None (92 :: p ++ Y) = option_map (app (encode_rune v)) (rd 0%nat None Y).
  Proof. intros H92 Ht Hv. exact (rd_step None _ 92 p Y _ None H92 Ht (emit_unit_scalar v Hv)). Qed.

  Lemma rd_raw tl Y : Forall (fun c => live c /\ forall X, tok (c :: X) = Some (TByte c, 1%nat)) tl ->
    rd 0%nat None (tl ++ Y) = option_map (app tl) (rd 0%nat None Y).
  Proof.
    induction 1 as [|c tl [Hl Hc] _ IH]; [cbn [app]; destruct (rd 0%nat None Y); reflexivity|].
    cbn [app]. rewrite (rd_tok None c (tl ++ Y) (TByte c) 1%nat [c] None Hl (Hc _) eq_refl). cbn [Nat.pred]. rewrite IH.
    destruct (rd 0%nat None Y); reflexivity.
  Qed.
End Reader.

Section JsStr.
  Variable is_print : N -> bool.
  (* U+2028 / U+2029 are line terminators in a JavaScript literal; Go's
     unicode.IsPrint rejects both (checked on the generated table: is_print_tbl_ls / is_print_tbl_ps below) *)
  Hypothesis is_print_ls : is_print 8232 = false.
  Hypothesis is_print_ps : is_print 8233 = false.
  Variable q : N.
  Hypothesis Hq : q = 39 \/ q = 34.

  Lemma js_rd_tok hi c r t n out hi' : True -> js_tok q (c :: r) = Some (t, n) -> emit_tok hi t = (out, hi') ->
    js_read_aux q 0 hi (c :: r) = option_map (app out) (js_read_aux q (pred n) hi' r).
  Proof. intros _ Ht He. cbn [js_read_aux]. rewrite Ht, He. reflexivity. Qed.

  Lemma js_read_step hi t c p X out hi' :
    js_tok q (c :: p ++ X) = Some (t, S (length p)) -> emit_tok hi t = (out, hi') ->
    js_read_aux q 0 hi (c :: p ++ X) = option_map (app out) (js_read_aux q 0 hi' X).
  Proof.
    apply (rd_step (js_tok q) (js_read_aux q) (fun _ => True) (fun _ _ _ _ => eq_refl) js_rd_tok). exact I.
  Qed.

  Lemma q_cases : q <> 92 /\ q <> 10 /\ q <> 13 /\ q < 128.
  Proof. destruct Hq as [-> | ->]; repeat split; try discriminate; reflexivity. Qed.

  Lemma js_tok_u h1 h2 h3 h4 v Y : hexval4 h1 h2 h3 h4 = Some v ->
    js_tok q (92 :: 117 :: h1 :: h2 :: h3 :: h4 :: Y) = Some (TUnit v, 6%nat).
  Proof.
    intros H. destruct q_cases as (H92 & _). cbn [js_tok]. destruct (N.eqb_spec 92 q); [congruence|].
    red_consts. cbn [orb]. cbv iota. rewrite H. reflexivity.
  Qed.

  Lemma js_tok_raw c Y : c <> q -> c <> 10 -> c <> 13 -> c <> 226 -> c <> 92 -> js_tok q (c :: Y) = Some (TByte c, 1%nat).
  Proof.
    intros. cbn [js_tok]. destruct (N.eqb_spec c q); [congruence|]. destruct (N.eqb_spec c 10); [congruence|].
    destruct (N.eqb_spec c 13); [congruence|]. destruct (N.eqb_spec c 226); [congruence|]. destruct (N.eqb_spec c 92); [congruence|].
    reflexivity.
  Qed.

  Lemma js_read_unit_u h1 h2 h3 h4 v Y : hexval4 h1 h2 h3 h4 = Some v -> valid_scalar v ->
    js_read_aux q 0 None ([92; 117; h1; h2; h3; h4] ++ Y) = option_map (app (encode_rune v)) (js_read_aux q 0 None Y).
  Proof.
    intros H Hv.
    apply (rd_unit (js_tok q) (js_read_aux q) (fun _ => True) (fun _ _ _ _ => eq_refl) js_rd_tok v [117; h1; h2; h3; h4] Y I);
      [apply js_tok_u, H|exact Hv].
  Qed.

  Lemma js_read_raw tl Y : Forall (fun c => c <> q /\ c <> 10 /\ c <> 13 /\ c <> 226 /\ c <> 92) tl ->
    js_read_aux q 0 None (tl ++ Y) = option_map (app tl) (js_read_aux q 0 None Y).
  Proof.
    intros H. apply (rd_raw (js_tok q) (js_read_aux q) (fun _ => True) js_rd_tok).
    eapply Forall_impl; [|exact H]. intros c (H1 & H2 & H3 & H4 & H5). split; [exact I|]. intros X. apply js_tok_raw; assumption.
  Qed.

  Definition js_piece_ascii (c : N) : bstr := match js_ascii_escape c with Some e => e | None => [c] end.

  Lemma js_read_ascii c Y : c < 128 ->
    js_read_aux q 0 None (js_piece_ascii c ++ Y) = option_map (app [c]) (js_read_aux q 0 None Y).
  Proof.
    intros Hc. unfold js_piece_ascii, js_ascii_escape.
    assert (forall e, (e = 92 \/ e = 39 \/ e = 34) ->
       js_read_aux q 0 None ([92; e] ++ Y) = option_map (app [e]) (js_read_aux q 0 None Y)) as Hsingle.
    { intros e He. cbn [app]. apply (js_read_step None (TUnit e) 92 [e] Y [e] None).
      - destruct Hq as [-> | ->]; destruct He as [-> | [-> | ->]]; reflexivity.
      - destruct He as [-> | [-> | ->]]; reflexivity. }
    destruct (N.eqb_spec c 92) as [->|H92]; [apply Hsingle; auto|].
    destruct (N.eqb_spec c 39) as [->|H39]; [apply Hsingle; auto|].
    destruct (N.eqb_spec c 34) as [->|H34]; [apply Hsingle; auto|].
    destruct (N.eqb_spec c 60) as [->|H60]; [apply (js_read_unit_u 48 48 51 67 60); [reflexivity|left; lia]|].
    destruct (N.eqb_spec c 62) as [->|H62]; [apply (js_read_unit_u 48 48 51 69 62); [reflexivity|left; lia]|].
    destruct (N.eqb_spec c 38) as [->|H38]; [apply (js_read_unit_u 48 48 50 54 38); [reflexivity|left; lia]|].
    destruct (N.eqb_spec c 61) as [->|H61]; [apply (js_read_unit_u 48 48 51 68 61); [reflexivity|left; lia]|].
    destruct (c <? 32) eqn:E32.
    - rewrite <- (encode_rune_ascii c Hc). apply js_read_unit_u; [|left; lia].
      unfold hexval4. change (hexval2 48 48) with (Some 0). rewrite hexval2_hexdigit by lia. f_equal.
    - apply (js_read_raw [c]). repeat constructor; destruct Hq as [-> | ->]; lia.
  Qed.

  Definition js_piece (r : N) : bstr :=
    if r <? 128 then js_piece_ascii r
    else if is_print r then encode_rune r else 92 :: 117 :: fmt_04X r.

  Lemma js_read_piece r Y : valid_scalar r -> (r < 65536 \/ is_print r = true) ->
    js_read_aux q 0 None (js_piece r ++ Y) = option_map (app (encode_rune r)) (js_read_aux q 0 None Y).
  Proof.
    intros Hv Hg. unfold js_piece. destruct (r <? 128) eqn:E128.
    { rewrite encode_rune_ascii by lia. apply js_read_ascii. lia. }
    destruct (is_print r) eqn:Ep.
    - destruct (encode_rune_high r Hv ltac:(lia)) as (c0 & tl & E & Hc0 & _ & Htl).
      assert (js_tok q (c0 :: tl ++ Y) = Some (TByte c0, 1%nat)) as Htok.
      { destruct (N.eq_dec c0 226) as [->|Hn226].
        - destruct (enc_226 r tl Hv E) as (b1 & b2 & -> & Hls).
          cbn [app js_tok]. destruct (N.eqb_spec 226 q); [destruct Hq; lia|]. red_consts. cbn [orb]. cbv iota.
          destruct ((b1 =? 128) && ((b2 =? 168) || (b2 =? 169))) eqn:Eb; [|reflexivity].
          exfalso. assert (r = 8232 \/ r = 8233) as [-> | ->] by (apply Hls; lia); congruence.
        - apply js_tok_raw; destruct Hq as [-> | ->]; lia. }
      rewrite E. cbn [app]. rewrite (js_rd_tok None c0 (tl ++ Y) (TByte c0) 1%nat [c0] None I Htok eq_refl). cbn [Nat.pred].
      rewrite js_read_raw; [destruct (js_read_aux q 0 None Y); reflexivity|].
      eapply Forall_impl; [|exact Htl]. unfold is_cont, in_range. intros c Hc. destruct Hq as [-> | ->]; lia.
    - destruct Hg as [Hg|Hg]; [|congruence].
      unfold fmt_04X. destruct (r <? 65536) eqn:E16; [|lia].
      unfold hex4. apply js_read_unit_u; [apply hexval4_hex4; exact Hg|exact Hv].
  Qed.

  Lemma js_escape_rune r X : valid_scalar r ->
    js_escape_aux is_print 0 (encode_rune r ++ X) = js_piece r ++ js_escape_aux is_print 0 X.
  Proof.
    intros Hv. unfold js_piece. destruct (r <? 128) eqn:E128.
    - rewrite encode_rune_ascii by lia. cbn [app js_escape_aux]. rewrite E128. unfold js_piece_ascii.
      destruct (js_ascii_escape r); reflexivity.
    - destruct (rune_at_head r X Hv ltac:(lia)) as (c0 & tl & -> & Ec0 & Hd & Ht).
      cbn [app js_escape_aux]. rewrite Ec0. unfold js_rune_piece, rune_width. rewrite Hd, Ht.
      cbn [snd Nat.pred]. rewrite (skip_app (js_escape_aux is_print)) by reflexivity.
      destruct (is_print r); reflexivity.
  Qed.

  Theorem jsstr_roundtrip_q s : utf8_valid s = true ->
    Forall (fun r => r < 65536 \/ is_print r = true) (runes s) ->
    js_read_literal_q q (js_escape is_print s) = Some s.
  Proof.
    intros Hv Hg. unfold js_read_literal_q, js_escape.
    pose proof (runewise_roundtrip (js_escape_aux is_print 0) (js_read_aux q 0 None) js_piece _ [] eq_refl
                  js_escape_rune js_read_piece s Hv Hg) as H.
    rewrite app_nil_r in H. rewrite H. cbn. rewrite app_nil_r. reflexivity.
  Qed.
End JsStr.

(* the escaped text contains no line feed, carriage return, angle bracket,
   ampersand or equals sign, for EVERY byte string (valid UTF-8 or not) *)
Definition js_inert (c : N) : Prop := c <> 10 /\ c <> 13 /\ c <> 60 /\ c <> 62 /\ c <> 38 /\ c <> 61.

Lemma hexdigit_inert n : n < 16 -> js_inert (hexdigit n).
Proof. intros H. unfold js_inert, hexdigit. brk; lia. Qed.

Lemma mod16_lt a : a mod 16 < 16.
Proof. apply N.mod_lt. discriminate. Qed.

Lemma decode_rune_take_high s r w : decode_rune s = (r, w) -> (exists c r0, s = c :: r0 /\ 128 <= c) ->
  Forall (fun c => 128 <= c) (take w s).
Proof.
  intros Hd (c & r0 & -> & Hc).
  destruct (N.eq_dec r rune_error) as [Hr|Hr]; [destruct (Nat.eq_dec w 1) as [->|Hw]|].
  { cbn [take]. repeat constructor. exact Hc. }
  all: destruct (decode_rune_inv (c :: r0) r w ltac:(discriminate) Hd ltac:(tauto)) as (Hv & Hlen & Hs);
    destruct (encode_rune_shape r Hv) as (c0 & tl & E & _ & Htl & _);
    rewrite Hs, <- Hlen, take_app_len; rewrite E in Hs; cbn [app] in Hs; injection Hs as <- _;
    rewrite E; constructor; [exact Hc|]; eapply Forall_impl; [|exact Htl]; unfold is_cont, in_range; intros; lia.
Qed.

Lemma js_ascii_escape_inert c e : js_ascii_escape c = Some e -> Forall js_inert e.
Proof.
  unfold js_ascii_escape. brk; intros [= <-]; repeat (constructor; [unfold js_inert; lia|]);
    repeat (constructor; [apply hexdigit_inert; lia|]); constructor.
Qed.

Lemma fmt_04X_inert r : Forall js_inert (fmt_04X r).
Proof. unfold fmt_04X, hex4. brk; repeat constructor; apply hexdigit_inert, mod16_lt. Qed.

Theorem js_escape_inert is_print s : Forall js_inert (js_escape is_print s).
Proof.
  unfold js_escape. generalize 0%nat as k. induction s as [|c r IH]; intros k; [constructor|].
  cbn [js_escape_aux]. destruct k as [|k]; [|apply IH].
  destruct (c <? 128) eqn:E128.
  - destruct (js_ascii_escape c) as [e|] eqn:Ee.
    + apply Forall_app. split; [eapply js_ascii_escape_inert, Ee|apply IH].
    + constructor; [|apply IH]. revert Ee. unfold js_ascii_escape, js_inert. brk; try discriminate. lia.
  - apply Forall_app. split; [|apply IH].
    unfold js_rune_piece. destruct (decode_rune (c :: r)) as [ru w] eqn:Hd.
    destruct (is_print ru).
    + eapply Forall_impl; [|eapply decode_rune_take_high; [exact Hd|exists c, r; split; [reflexivity|lia]]].
      cbn. unfold js_inert. intros; lia.
    + repeat (constructor; [unfold js_inert; lia|]). apply fmt_04X_inert.
Qed.

Lemma json_rd_tok hi c r t n out hi' : c <> 34 -> json_tok (c :: r) = Some (t, n) -> emit_tok hi t = (out, hi') ->
  json_read_aux 0 hi (c :: r) = option_map (app out) (json_read_aux (pred n) hi' r).
Proof. intros Hc Ht He. cbn [json_read_aux]. destruct (N.eqb_spec c 34); [congruence|]. rewrite Ht, He. reflexivity. Qed.

Lemma json_tok_raw c Y : 32 <= c -> c <> 92 -> json_tok (c :: Y) = Some (TByte c, 1%nat).
Proof.
  intros H1 H2. cbn [json_tok]. destruct (c <? 32) eqn:E; [lia|]. destruct (N.eqb_spec c 92); [congruence|]. reflexivity.
Qed.

Lemma json_read_escape v p Y : json_tok (92 :: p ++ Y) = Some (TUnit v, S (length p)) -> valid_scalar v ->
  json_read_aux 0 None ((92 :: p) ++ Y) = option_map (app (encode_rune v)) (json_read_aux 0 None Y).
Proof.
  apply (rd_unit json_tok json_read_aux (fun c => c <> 34) (fun _ _ _ _ => eq_refl) json_rd_tok). discriminate.
Qed.

Lemma json_read_unit_u h1 h2 h3 h4 v Y : hexval4 h1 h2 h3 h4 = Some v -> valid_scalar v ->
  json_read_aux 0 None ([92; 117; h1; h2; h3; h4] ++ Y) = option_map (app (encode_rune v)) (json_read_aux 0 None Y).
Proof.
  intros H. apply (json_read_escape v [117; h1; h2; h3; h4]).
  cbn [app length json_tok]. red_consts. cbv iota. rewrite H. reflexivity.
Qed.

Lemma json_read_single e v Y : json_single_escape e = Some v -> e <> 117 -> v < 128 ->
  json_read_aux 0 None ([92; e] ++ Y) = option_map (app [v]) (json_read_aux 0 None Y).
Proof.
  intros He Hu Hv. rewrite <- (encode_rune_ascii v Hv). apply (json_read_escape v [e]); [|left; lia].
  cbn [app length json_tok]. red_consts. cbv iota. destruct (N.eqb_spec e 117); [congruence|]. rewrite He. reflexivity.
Qed.

Lemma json_read_raw tl Y : Forall (fun c => 32 <= c /\ c <> 92 /\ c <> 34) tl ->
  json_read_aux 0 None (tl ++ Y) = option_map (app tl) (json_read_aux 0 None Y).
Proof.
  intros H. apply (rd_raw json_tok json_read_aux (fun c => c <> 34) json_rd_tok).
  eapply Forall_impl; [|exact H]. intros c (H1 & H2 & H3). split; [exact H3|]. intros X. apply json_tok_raw; assumption.
Qed.

Definition json_piece_ascii (c : N) : bstr := match json_ascii_escape c with Some e => e | None => [c] end.

Lemma json_read_ascii c Y : c < 128 ->
  json_read_aux 0 None (json_piece_ascii c ++ Y) = option_map (app [c]) (json_read_aux 0 None Y).
Proof.
  intros Hc. unfold json_piece_ascii, json_ascii_escape.
  destruct (N.eqb_spec c 92) as [->|H92]; [cbn [orb]; apply json_read_single; [reflexivity|lia|lia]|].
  destruct (N.eqb_spec c 34) as [->|H34]; [cbn [orb]; apply json_read_single; [reflexivity|lia|lia]|].
  cbn [orb].
  destruct (N.eqb_spec c 8) as [->|H8]; [apply json_read_single; [reflexivity|lia|lia]|].
  destruct (N.eqb_spec c 12) as [->|H12]; [apply json_read_single; [reflexivity|lia|lia]|].
  destruct (N.eqb_spec c 10) as [->|H10]; [apply json_read_single; [reflexivity|lia|lia]|].
  destruct (N.eqb_spec c 13) as [->|H13]; [apply json_read_single; [reflexivity|lia|lia]|].
  destruct (N.eqb_spec c 9) as [->|H9]; [apply json_read_single; [reflexivity|lia|lia]|].
  destruct ((c <? 32) || (c =? 60) || (c =? 62) || (c =? 38)) eqn:E.
  - rewrite <- (encode_rune_ascii c Hc). apply json_read_unit_u; [|left; lia].
    unfold hexval4. change (hexval2 48 48) with (Some 0). rewrite hexval2_hexdigit_lc by lia. f_equal.
  - apply (json_read_raw [c]). repeat constructor; lia.
Qed.

Definition json_piece (r : N) : bstr :=
  if r <? 128 then json_piece_ascii r
  else if (r =? 8232) || (r =? 8233) then [92; 117; 50; 48; 50; hexdigit_lc (r mod 16)]
  else encode_rune r.

Lemma json_read_piece r Y : valid_scalar r ->
  json_read_aux 0 None (json_piece r ++ Y) = option_map (app (encode_rune r)) (json_read_aux 0 None Y).
Proof.
  intros Hv. unfold json_piece. destruct (r <? 128) eqn:E128.
  { rewrite encode_rune_ascii by lia. apply json_read_ascii. lia. }
  destruct (N.eqb_spec r 8232) as [->|H1]; [cbn [orb]; apply json_read_unit_u; [reflexivity|exact Hv]|].
  destruct (N.eqb_spec r 8233) as [->|H2]; [cbn [orb]; apply json_read_unit_u; [reflexivity|exact Hv]|].
  cbn [orb]. destruct (encode_rune_high r Hv ltac:(lia)) as (c0 & tl & E & Hc0 & _ & Htl).
  apply json_read_raw. rewrite E. constructor; [lia|].
  eapply Forall_impl; [|exact Htl]. unfold is_cont, in_range. intros; lia.
Qed.

Lemma json_string_rune r X : valid_scalar r ->
  json_string_aux 0 (encode_rune r ++ X) = json_piece r ++ json_string_aux 0 X.
Proof.
  intros Hv. unfold json_piece. destruct (r <? 128) eqn:E128.
  - rewrite encode_rune_ascii by lia. cbn [app json_string_aux]. rewrite E128. unfold json_piece_ascii.
    destruct (json_ascii_escape r); reflexivity.
  - pose proof (encode_not_bad r Hv) as Hnb.
    destruct (rune_at_head r X Hv ltac:(lia)) as (c0 & tl & E & Ec0 & Hd & Ht).
    rewrite E in *. cbn [app json_string_aux]. rewrite Ec0, Hd, Ht.
    destruct ((r =? rune_error) && Nat.eqb (S (length tl)) 1) eqn:Eb.
    { exfalso. apply andb_true_iff in Eb. destruct Eb as [E1 E2]. apply N.eqb_eq in E1. apply Nat.eqb_eq in E2. tauto. }
    cbn [Nat.pred]. rewrite (skip_app json_string_aux) by reflexivity.
    destruct ((r =? 8232) || (r =? 8233)); reflexivity.
Qed.

Theorem json_string_roundtrip s : utf8_valid s = true -> json_parse_string (json_string s) = Some s.
Proof.
  intros Hv. unfold json_parse_string, json_string. red_consts. cbv iota.
  rewrite (runewise_roundtrip (json_string_aux 0) (json_read_aux 0 None) json_piece (fun _ => True) [34] eq_refl
             json_string_rune (fun r Y Hr _ => json_read_piece r Y Hr) s Hv) by (apply Forall_forall; intros; exact I).
  change (json_read_aux 0 None [34]) with (Some (@nil N)). cbn [option_map]. rewrite app_nil_r. reflexivity.
Qed.

(* json output of a string never contains a raw angle bracket or ampersand
   (escapeHTML), whatever the bytes *)
Definition html_inert (c : N) : Prop := c <> 60 /\ c <> 62 /\ c <> 38.

Lemma hexdigit_lc_inert n : n < 16 -> html_inert (hexdigit_lc n).
Proof. intros H. unfold html_inert, hexdigit_lc. brk; lia. Qed.

Lemma json_ascii_escape_inert c e : json_ascii_escape c = Some e -> Forall html_inert e.
Proof.
  unfold json_ascii_escape. brk; intros [= <-]; repeat (constructor; [unfold html_inert; lia|]);
    repeat (constructor; [apply hexdigit_lc_inert; lia|]); constructor.
Qed.

Theorem json_string_inert s : Forall html_inert (json_string s).
Proof.
  unfold json_string. constructor; [unfold html_inert; lia|].
  apply Forall_app. split; [|repeat constructor; lia].
  generalize 0%nat as k. induction s as [|c r IH]; intros k; [constructor|].
  cbn [json_string_aux]. destruct k as [|k]; [|apply IH].
  destruct (c <? 128) eqn:E128.
  - destruct (json_ascii_escape c) as [e|] eqn:Ee.
    + apply Forall_app. split; [eapply json_ascii_escape_inert, Ee|apply IH].
    + constructor; [|apply IH]. revert Ee. unfold json_ascii_escape, html_inert. brk; try discriminate. lia.
  - destruct (decode_rune (c :: r)) as [ru w] eqn:Hd.
    destruct ((ru =? rune_error) && Nat.eqb w 1).
    { unfold json_fffd. cbn [app]. repeat constructor; try lia. apply IH. }
    destruct ((ru =? 8232) || (ru =? 8233)).
    { cbn [app]. repeat (constructor; [unfold html_inert; lia|]). constructor; [apply hexdigit_lc_inert, mod16_lt|apply IH]. }
    apply Forall_app. split; [|apply IH].
    eapply Forall_impl; [|eapply decode_rune_take_high; [exact Hd|exists c, r; split; [reflexivity|lia]]].
    cbn. unfold html_inert. intros; lia.
Qed.

Theorem chain_any_uri (f : bstr -> bstr) s : Forall (fun c => c < 256) (f s) -> pct_decode (escape_uri (f s)) = Some (f s).
Proof. apply uri_roundtrip. Qed.

Theorem chain_truncate_json s n e out : utf8_valid s = true -> truncate s n e = Ok out ->
  json_parse_string (json_string out) = Some out.
Proof.
  intros Hv Ht. apply json_string_roundtrip.
  destruct (Z.leb_spec (Z.of_nat (length s)) n) as [Hfit|Hcut].
  - rewrite truncate_fits in Ht by exact Hfit. injection Ht as <-. exact Hv.
  - destruct (truncate_cut s n e out Hcut Ht) as (k & c & _ & _ & _ & _ & _ & _ & _ & Hvalid). auto.
Qed.

Lemma runes_app a c : utf8_valid a = true -> runes (a ++ c) = runes a ++ runes c.
Proof.
  intros Ha. revert a Ha. apply (utf8_valid_ind (fun a => runes (a ++ c) = runes a ++ runes c)); [reflexivity|].
  intros r X Hr HX IH. rewrite <- app_assoc. rewrite !runes_rune by exact Hr. rewrite IH. reflexivity.
Qed.

Lemma runes_take s : utf8_valid s = true ->
  forall k c, nth_error s k = Some c -> rune_start c = true -> forall r, In r (runes (take k s)) -> In r (runes s).
Proof.
  revert s. apply (utf8_valid_ind (fun s => forall k c, nth_error s k = Some c -> rune_start c = true ->
                                            forall r, In r (runes (take k s)) -> In r (runes s))).
  - intros k c H. destruct k; discriminate.
  - intros r X Hr HX IH k c Hn Hc r' Hin.
    destruct (encode_rune_shape r Hr) as (c0 & tl & E & Hs0 & Htl & _).
    rewrite runes_rune by exact Hr.
    destruct (Nat.lt_ge_cases k (length (encode_rune r))) as [Hlt|Hge].
    + destruct k as [|k]; [destruct Hin|]. exfalso.
      rewrite E in Hn, Hlt. cbn [app nth_error length] in Hn, Hlt.
      rewrite nth_error_app1 in Hn by lia.
      apply nth_error_In in Hn. rewrite Forall_forall in Htl. specialize (Htl c Hn).
      unfold rune_start in Hc. rewrite Htl in Hc. discriminate.
    + rewrite take_app_ge in Hin by exact Hge. rewrite runes_rune in Hin by exact Hr.
      destruct Hin as [<-|Hin]; [left; reflexivity|right].
      rewrite nth_error_app2 in Hn by exact Hge. eapply IH; eauto.
Qed.

Section ChainJs.
  Variable is_print : N -> bool.
  Hypothesis is_print_ls : is_print 8232 = false.
  Hypothesis is_print_ps : is_print 8233 = false.
  Variable q : N.
  Hypothesis Hq : q = 39 \/ q = 34.

  Theorem chain_truncate_jsstr s n e out : utf8_valid s = true ->
    Forall (fun r => r < 65536 \/ is_print r = true) (runes s) ->
    truncate s n e = Ok out ->
    js_read_literal_q q (js_escape is_print out) = Some out.
  Proof.
    intros Hv Hg Ht.
    destruct (Z.leb_spec (Z.of_nat (length s)) n) as [Hfit|Hcut].
    - rewrite truncate_fits in Ht by exact Hfit. injection Ht as <-. apply jsstr_roundtrip_q; assumption.
    - destruct (truncate_cut s n e out Hcut Ht) as (k & c & -> & _ & _ & Hn & Hrs & _ & _ & Hvalid).
      apply jsstr_roundtrip_q; auto.
      assert (utf8_valid (take k s) = true) as Hvk by (eapply utf8_valid_take; eauto).
      rewrite runes_app by exact Hvk. apply Forall_app. split.
      + rewrite Forall_forall in *. intros r Hr. apply Hg. eapply runes_take; eauto.
      + destruct (trunc_ell n e); [repeat constructor; lia|constructor].
  Qed.
End ChainJs.

(* escapeHtml keeps valid UTF-8 valid, so it can be followed by json *)
Lemma tmpl_html_escape_high pre X : Forall (fun c => 128 <= c) pre -> tmpl_html_escape (pre ++ X) = pre ++ tmpl_html_escape X.
Proof.
  induction 1 as [|c pre Hc Hpre IH]; [reflexivity|]. cbn [app tmpl_html_escape].
  rewrite tmpl_entity_high, IH by exact Hc. reflexivity.
Qed.

Lemma esc1_valid c : c < 128 -> utf8_valid (esc1 c) = true.
Proof.
  intros Hc. unfold esc1, tmpl_entity. brk; try reflexivity.
  unfold utf8_valid. cbn [utf8_valid_aux decode_rune]. destruct (c <? 128) eqn:E128; [|lia].
  destruct ((c =? rune_error) && Nat.eqb 1 1) eqn:Eb; [unfold rune_error in Eb; lia|reflexivity].
Qed.

Theorem tmpl_html_escape_valid s : utf8_valid s = true -> utf8_valid (tmpl_html_escape s) = true.
Proof.
  revert s. apply (utf8_valid_ind (fun s => utf8_valid (tmpl_html_escape s) = true)); [reflexivity|].
  intros r X Hr HX IH. destruct (N.lt_ge_cases r 128) as [Hl|Hg].
  - rewrite encode_rune_ascii by exact Hl. cbn [app]. rewrite tmpl_html_escape_cons.
    apply utf8_valid_app; [apply esc1_valid; exact Hl|exact IH].
  - destruct (encode_rune_high r Hr Hg) as (c0 & tl & E & Hc0 & _ & Htl).
    rewrite tmpl_html_escape_high, utf8_valid_rune; [exact IH|exact Hr|].
    rewrite E. constructor; [exact Hc0|]. eapply Forall_impl; [|exact Htl]. unfold is_cont, in_range. intros; lia.
Qed.

Theorem chain_escapehtml_json s : utf8_valid s = true ->
  json_parse_string (json_string (tmpl_html_escape s)) = Some (tmpl_html_escape s).
Proof. intros H. apply json_string_roundtrip, tmpl_html_escape_valid, H. Qed.

(* truncate after an HTML-producing directive may cut the directive's own
   markup or a character reference: no composition statement holds there
   (C03 treats that case); truncate BEFORE them composes: *)
Theorem chain_truncate_wbr s n e out k : truncate s n e = Ok out ->
  remove_tok wbr (insert_word_breaks out k) = tmpl_html_escape out.
Proof. intros _. apply wbr_only. Qed.

Theorem chain_truncate_br s n e out : truncate s n e = Ok out ->
  remove_tok br (change_newline_to_br out) = tmpl_html_escape (remove_newlines out).
Proof. intros _. apply br_only. Qed.

Lemma is_print_tbl_ls : is_print_tbl 8232 = false.
Proof. vm_compute. reflexivity. Qed.
Lemma is_print_tbl_ps : is_print_tbl 8233 = false.
Proof. vm_compute. reflexivity. Qed.

(* the guard: every rune is in the BMP or printable; its negation is the
   trigger of finding jsstr-astral-nonprint-5hex *)
Definition js_guard (s : bstr) : Prop := Forall (fun r => r < 65536 \/ is_print_tbl r = true) (runes s).

Theorem jsstr_roundtrip s : js_guard s -> utf8_valid s = true -> js_read_literal (js_escape is_print_tbl s) = Some s.
Proof. intros Hg Hv. apply (jsstr_roundtrip_q is_print_tbl is_print_tbl_ls is_print_tbl_ps 39); auto. Qed.

Theorem jsstr_roundtrip_dq s : js_guard s -> utf8_valid s = true -> js_read_literal_q 34 (js_escape is_print_tbl s) = Some s.
Proof. intros Hg Hv. apply (jsstr_roundtrip_q is_print_tbl is_print_tbl_ls is_print_tbl_ps 34); auto. Qed.

(* without the guard the statement is false of the faithful model: U+F0000
   is written as backslash-u F0000, which reads back as U+F000 followed by 0 *)
Theorem jsstr_astral_refuted :
  exists s, utf8_valid s = true /\ js_escape is_print_tbl s = [92; 117; 70; 48; 48; 48; 48]
            /\ js_read_literal (js_escape is_print_tbl s) = Some [239; 128; 128; 48]
            /\ js_read_literal (js_escape is_print_tbl s) <> Some s.
Proof.
  exists [243; 176; 128; 128]. split; [vm_compute; reflexivity|].
  split; [vm_compute; reflexivity|]. split; [vm_compute; reflexivity|]. vm_compute. discriminate.
Qed.
