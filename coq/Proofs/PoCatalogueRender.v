(* C11, the chain closed: from the BYTES of a catalogue (header and entries, Model/PoHeader.v) to what soyhtml
   writes for a message that has an entry in it.  [new_bundle] keeps, per id, the LAST translated entry
   ([po_find]); so if the last translated entry under a flat message's id carries msgstr_of tr, loading the
   file and rendering the message with the loaded bundle and the loaded plural selector runs the translation's
   items (Proofs/MsgPartsProofs.v translation_places_values). *)
From Coq Require Import Lia ZifyBool List Bool ZArith.
From Soy Require Import Model.Bytes Model.Outcome Model.Utf8 Model.Num Model.Values Model.Ast Model.MsgId Model.Interp Model.MsgParts
  Spec.MsgCat Model.PoFile Model.PoEntry Model.PoBundle Model.PoHeader Proofs.PoFileProofs Proofs.PoEntryProofs Proofs.PoBundleProofs
  Proofs.PoHeaderProofs Proofs.MsgPartsProofs.
Import ListNotations.
Open Scope N_scope.

(* the entry newBundle keeps under an id: the last translated one *)
Fixpoint po_find (es : list po_entry) (id : N) (acc : option po_entry) : option po_entry :=
  match es with
  | [] => acc
  | e :: r => if (po_id e =? id) && is_translated (po_strs e) then po_find r id (Some e) else po_find r id acc
  end.

Lemma po_find_acc : forall es id acc,
  po_find es id acc = match po_find es id None with Some e => Some e | None => acc end.
Proof.
  induction es as [|e r IH]; intros id acc; [reflexivity|]. cbn [po_find].
  destruct ((po_id e =? id) && is_translated (po_strs e)).
  - rewrite (IH id (Some e)). destruct (po_find r id None); reflexivity.
  - apply IH.
Qed.

Lemma assoc_put_same : forall (bd : bundle) id m, assoc id (bundle_put bd id m) = Some m.
Proof.
  induction bd as [|[i x] r IH]; intros id m; cbn [bundle_put assoc].
  - rewrite N.eqb_refl. reflexivity.
  - destruct (i =? id) eqn:E; cbn [assoc].
    + apply N.eqb_eq in E. subst. rewrite N.eqb_refl. reflexivity.
    + replace (id =? i) with false by lia. apply IH.
Qed.

Lemma assoc_put_other : forall (bd : bundle) id id' m, id' <> id -> assoc id' (bundle_put bd id m) = assoc id' bd.
Proof.
  induction bd as [|[i x] r IH]; intros id id' m H; cbn [bundle_put assoc].
  - replace (id' =? id) with false by lia. reflexivity.
  - destruct (i =? id) eqn:E; cbn [assoc].
    + apply N.eqb_eq in E. subst. replace (id' =? id) with false by lia. reflexivity.
    + destruct (id' =? i); [reflexivity|]. apply IH. exact H.
Qed.

(* newBundle's loop never fails on entries with an id, and looks up as po_find says *)
Lemma new_bundle_loop_lookup : forall es bd, Forall (fun e => po_id e <> 0) es ->
  exists bd', new_bundle_loop es bd = Ok bd' /\
    forall id, assoc id bd' = match po_find es id None with
                             | Some e => Some (new_message (po_var e) (po_strs e))
                             | None => assoc id bd
                             end.
Proof.
  induction es as [|e r IH]; intros bd H.
  - exists bd. split; reflexivity.
  - inversion H as [|? ? He Hr]; subst. cbn [new_bundle_loop po_find].
    replace (po_id e =? 0) with false by lia.
    destruct (is_translated (po_strs e)) eqn:Et; cbn [negb].
    + destruct (IH (bundle_put bd (po_id e) (new_message (po_var e) (po_strs e))) Hr) as (bd' & E & L).
      exists bd'. split; [exact E|]. intro id. rewrite L. rewrite andb_true_r.
      destruct (po_id e =? id) eqn:Eid.
      * apply N.eqb_eq in Eid. subst id. rewrite (po_find_acc r (po_id e) (Some e)).
        destruct (po_find r (po_id e) None); [reflexivity|]. apply assoc_put_same.
      * destruct (po_find r id None); [reflexivity|]. apply assoc_put_other. lia.
    + destruct (IH bd Hr) as (bd' & E & L). exists bd'. split; [exact E|]. intro id. rewrite L.
      rewrite andb_false_r. reflexivity.
Qed.

Definition xentry_id_nz (t : xentry) : Prop := let '(_, id, _, _) := t in id <> 0.

Lemma xentry_po_nz es : Forall xentry_id_nz es -> Forall (fun e => po_id e <> 0) (map xentry_po es).
Proof.
  intro H. induction H as [|t r Ht _ IH]; [constructor|]. cbn [map]. constructor; [|exact IH].
  destruct t as [[[desc id] pv] f]. exact Ht.
Qed.

(* THE CHAIN, for a flat message: the bytes of a catalogue whose header names a known plural rule and whose last
   translated entry under the message's id is the singular entry with msgstr_of tr, loaded by po.Parse + pomsg.newBundle
   under any locale name, give a bundle and a selector with which soyhtml's evalMsg -- for EVERY walker -- runs the
   translation's items: the text segments where the translator put them, every slot by walking the first placeholder
   that carries its name *)
Theorem catalogue_renders_translation is_print (h : poh_header) (es : list xentry) (locale : bstr) (c : N)
    (w : node -> M value) (mp id : N) (body : list node) (tr : list titem) (e : po_entry) :
  h <> [] -> poh_hdr_ok h -> Forall xentry_ok es -> Forall xentry_id64 es -> Forall xentry_id_nz es ->
  poh_lookup_selector (poh_get poh_k_plural_forms h) = Some c ->
  id <> 0 -> po_find (map xentry_po es) id None = Some e -> po_var e = [] -> po_strs e = [msgstr_of tr] ->
  forallb flat_node body = true -> items_named body tr -> parts_clean (map item_part tr) ->
  exists bd, poh_load locale (poh_write_file is_print h (map xentry_msg es)) = Ok (bd, c)
    /\ eval_msg (poh_plural_index c) bd w mp id body = run_items w (map (resolve body) tr).
Proof.
  intros Hne Hh Hok H64 Hnz Hc Hid Hfind Hvar Hstrs Hflat Hnamed Hclean.
  destruct (new_bundle_loop_lookup (map xentry_po es) [] (xentry_po_nz es Hnz)) as (bd & Ebd & L).
  exists bd. split.
  - rewrite (load_header_plural_forms is_print h es locale c Hne Hh Hok H64 Hc). unfold new_bundle. rewrite Ebd. reflexivity.
  - apply translation_places_values; try assumption.
    unfold bundle_message. replace (id =? 0) with false by lia. rewrite L, Hfind, Hvar, Hstrs. reflexivity.
Qed.
