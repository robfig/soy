(* C19, parse half: scanner model and parser model composed -- parse_error_position.

   For EVERY input s: if the scan of s returns the items ts and the model of parse.SoyFile on ts
   returns an error, then the error is reported
     - at the item the parser received last, or at the one received just before it (the window of
       Proofs/ErrPosWindow*.v: every errorf / unexpected / expect site), an item the scanner sent
       for s (or the zero item of its closed channel): it lies inside s and its line, as
       lexer.lineNumber computes it, is between 1 and the number of lines of s;
     - if that item is an error item (the scanner could not go on): it is the LAST item of the scan
       and stands at the cursor where scanning stopped; for an unterminated soydoc / block comment /
       string / tag that is the end of the input, i.e. the last line;
     - or (class "quoted:...") at the last or last-but-one item the scanner of a quoted attribute
       expression delivered, placed in the enclosing file (position <= |s|) at
       base + offset in the expression, or -- without enclosing text -- in the expression itself. *)
From Soy Require Import Model.Bytes Model.Utf8 Model.Outcome Model.Num Model.Values Model.Ast Model.Token
  Model.Lexer Model.RawText Model.ExprParser Model.Parser Generated.Tables Model.Interp Spec.ErrPos Spec.LexSpec
  Proofs.LexerPrim Proofs.LexerStates Proofs.LexerProofs Proofs.ErrTokProofs Proofs.LexErrPos Proofs.LexEofPos
  Proofs.LexFinalPos Proofs.ErrPosWindow Proofs.ErrPosWindowCmd.
From Coq Require Import ZifyBool Lia List.
Import ListNotations.
Open Scope N_scope.

Lemma itm_cases ts k : itm ts k = zero_tok \/ In (itm ts k) ts.
Proof.
  destruct k as [|i]; [left; reflexivity|]. cbn [itm].
  destruct (Nat.ltb_spec i (length ts)) as [H|H]; [right; apply nth_In; exact H|left; apply nth_overflow; exact H].
Qed.

Lemma werr_cases ts t st : werr ts t st -> t = zero_tok \/ In t ts.
Proof. intros [->| ->]; apply itm_cases. Qed.

Lemma final_last_in ts : final_last ts -> forall t, In t ts -> is_final (t_typ t) = true -> exists pre, ts = pre ++ [t].
Proof.
  induction ts as [|a r IH]; intros Hf t Hin Ht; [contradiction|]. cbn in Hf. destruct Hf as [Ha Hr].
  destruct Hin as [->|Hin].
  - rewrite (Ha Ht). exists []. reflexivity.
  - destruct (IH Hr t Hin Ht) as (pre & ->). exists (a :: pre). reflexivity.
Qed.

Definition error_code_agrees : pit_Error = itemError := eq_refl.

Section Compose.
Variable uni_letter uni_digit : Z -> bool.
Hypothesis letter_eof : uni_letter (-1)%Z = false.
Hypothesis digit_eof : uni_digit (-1)%Z = false.

(* what is known of an item the parser complains about, given that it is one the scanner sent for s *)
Definition item_facts (s : bstr) (ts : list tok) (t : tok) : Prop :=
  (t = zero_tok \/ In t ts) /\
  t_pos t <= N.of_nat (length s) /\ 1 <= line_at s (t_pos t) <= lines s /\
  (t_typ t = itemError ->
     (exists pre, ts = pre ++ [t]) /\
     (exists fuel l, lex_run uni_letter uni_digit fuel false s = Ok l /\ t_pos t = Z.to_N (l_pos l)) /\
     (eof_class (t_val t) = true -> t_pos t = N.of_nat (length s) /\ line_at s (t_pos t) = lines s)).

Lemma scanned_item_facts fuel s ts t :
  lex_items uni_letter uni_digit fuel false s = Ok ts -> (t = zero_tok \/ In t ts) -> item_facts s ts t.
Proof.
  intros Hlex Hin. unfold item_facts.
  pose proof (lex_items_scan_ok _ _ letter_eof digit_eof _ _ _ _ Hlex) as (Hall & Hends & Hfl).
  assert (Hpos : t_pos t <= N.of_nat (length s)).
  { destruct Hin as [->|Hin]; [cbn; lia|]. rewrite Forall_forall in Hall. exact (proj1 (Hall t Hin)). }
  split; [exact Hin|]. split; [exact Hpos|]. split; [apply line_at_inside|].
  intros Hty.
  destruct Hin as [->|Hin]; [vm_compute in Hty; discriminate|].
  assert (Hfin : is_final (t_typ t) = true) by (rewrite Hty; reflexivity).
  destruct (final_last_in ts Hfl t Hin Hfin) as (pre & Ets).
  split; [exists pre; exact Ets|].
  unfold lex_items in Hlex. destruct (lex_run uni_letter uni_digit fuel false s) as [l| | | | |] eqn:El; cbn in Hlex; try discriminate.
  injection Hlex as Hts.
  destruct (scan_final_item _ _ letter_eof digit_eof 0%Z ltac:(lia) fuel false s l El) as (it & rest & Ho & Hp & Hb & He).
  assert (Eit : it = t).
  { rewrite Ho in Hts. cbn [rev] in Hts. rewrite Ets in Hts. apply app_inj_tail in Hts. exact (proj2 Hts). }
  subst it. rewrite Z.add_0_l in Hp.
  split; [exists fuel, l; split; [exact El|exact Hp]|].
  intros Hc. specialize (He Hty Hc).
  assert (Ep : t_pos t = N.of_nat (length s)) by lia.
  split; [exact Ep|]. rewrite Ep. exact (proj1 (end_of_input_line s 0 ltac:(lia))).
Qed.

(* ---- parse_error_position ---- *)
Theorem parse_error_position fuel s ts lexq unq t c st :
  lex_items uni_letter uni_digit fuel false s = Ok ts ->
  let out := soy_file (N.of_nat (length s)) lexq unq ts in
  po_result out = PErr t c st ->
  (werr ts t st /\ item_facts s ts t)
  \/ quoted_window (N.of_nat (length s)) lexq t c (po_scans out).
Proof.
  intros Hlex out Herr. destruct (soy_file_error_window _ _ _ _ _ _ _ Herr) as [Hw|Hq]; [left|right; exact Hq].
  split; [exact Hw|]. eapply scanned_item_facts; [exact Hlex|]. eapply werr_cases; exact Hw.
Qed.

(* the line an error of the file's own scanner/parser is reported on always lies inside the file *)
Corollary parse_error_line_inside fuel s ts lexq unq t c st :
  lex_items uni_letter uni_digit fuel false s = Ok ts ->
  po_result (soy_file (N.of_nat (length s)) lexq unq ts) = PErr t c st ->
  forall src, 1 <= line_at src (t_pos t) <= lines src.
Proof. intros _ _ src. apply line_at_inside. Qed.
End Compose.

(* a quoted attribute expression: where its items stand.  The sub-scanner's item at offset p of the
   expression text is placed at base + p; an error complaining about it is reported there (the model
   turns a position beyond the text into the slice panic of lineNumber, never into an error) *)
Lemma shifted_item_pos base (lexq : bstr -> list tok) str k :
  itm (map (shift_tok base) (lexq str)) k = zero_tok \/
  exists it, In it (lexq str) /\ itm (map (shift_tok base) (lexq str)) k = shift_tok base it /\
             t_pos (shift_tok base it) = base + t_pos it.
Proof.
  destruct (itm_cases (map (shift_tok base) (lexq str)) k) as [H|H]; [left; exact H|right].
  apply in_map_iff in H. destruct H as (it & E & Hin). exists it. split; [exact Hin|]. split; [symmetry; exact E|reflexivity].
Qed.

Theorem quoted_error_position inlen lexq t c scans :
  quoted_window inlen lexq t c scans ->
  exists str base,
    (t = zero_tok \/ exists it, In it (lexq str) /\ t = shift_tok base it /\ t_pos t = base + t_pos it) /\
    (t_pos t <= inlen \/ (base = 0 /\ t_pos t <= N.of_nat (length str))) /\
    forall src, 1 <= line_at src (t_pos t) <= lines src.
Proof.
  intros (_ & str & base & sr & _ & Ht & Hpos). exists str, base.
  split; [|split; [exact Hpos|intros; apply line_at_inside]].
  assert (Hk : exists k, t = itm (map (shift_tok base) (lexq str)) k) by (destruct Ht as [Ht|Ht]; eauto).
  destruct Hk as (k & Ek).
  destruct (shifted_item_pos base lexq str k) as [E|(it & Hin & E & Ep)].
  - left. rewrite Ek. exact E.
  - right. exists it. split; [exact Hin|]. split; [rewrite Ek; exact E|rewrite Ek, E; exact Ep].
Qed.
