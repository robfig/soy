(* Two Gallina models of template.Registry.Add exist: Model/Compile.v (C13:
   [registry_add] over [creg], with the sourceByTemplateName / fileByTemplateName maps and the
   processed file bodies) and Model/Checker.v (C07: [add_file], the template list only).  On
   parsed files (files_shaped: a template body is a ListNode, soydoc params are
   SoyDocParamNodes) they build the same template list and fail for the same class of reason;
   with Proofs/CheckerCompileTie.v: [compile_check] of C07 is the Add + CheckDataRefs part of
   C13's [compile_gen]. *)
From Coq Require Import Permutation.
From Soy Require Import Model.Bytes Model.Num Model.Values Model.Outcome Model.Ast Model.MsgId Model.RefView Model.Checker
  Model.Compile Model.CheckerRun Generated.Tables Spec.Wf Proofs.ValueProofs Proofs.CheckerProofs Proofs.CheckerCompileTie.
Open Scope N_scope.

(* the registry of C13 and the template list of C07 *)
Definition inv (reg : registry) (acc : list template) : Prop :=
  r_templates reg = acc /\
  forall name, existsb (fun t => bstr_eqb (t_name t) name) acc = is_some (assoc_s name (r_files reg)).

Lemma find_namespace_tie body :
  match find_namespace body with
  | inr x => file_namespace body = Some x
  | inl e => file_namespace body = None /\ cls_add e = RNoNamespace
  end.
Proof.
  induction body as [|n r IH]; cbn [find_namespace file_namespace]; [split; reflexivity|].
  destruct n; first [exact IH | split; reflexivity | reflexivity].
Qed.

Lemma find_namespace_head body x : find_namespace body = inr x -> match body with n :: _ => is_template n = false | [] => True end.
Proof. destruct body as [|n r]; [trivial|]. destruct n; cbn; intros H; try discriminate; reflexivity. Qed.

Lemma assoc_s_put {A} k k' (v : A) m : assoc_s k (put m k' v) = if bstr_eqb k k' then Some v else assoc_s k m.
Proof.
  induction m as [|[k2 v2] r IH]; cbn [put assoc_s]; [destruct (bstr_eqb k k'); reflexivity|].
  destruct (bstr_eqb_spec k' k2) as [->|Hne]; cbn [assoc_s].
  - destruct (bstr_eqb k k2); reflexivity.
  - rewrite IH. destruct (bstr_eqb_spec k k2) as [->|]; [|reflexivity].
    destruct (bstr_eqb_spec k2 k'); [congruence | reflexivity].
Qed.

Lemma inv_append reg acc t text : inv reg acc -> inv (reg_append reg t text) (acc ++ [t]).
Proof.
  intros [Ht Hf]. split; [cbn; rewrite Ht; reflexivity|]. intros name. cbn [reg_append r_files].
  rewrite assoc_s_put, existsb_app, Hf. cbn [existsb]. rewrite orb_false_r, (bstr_eqb_sym (t_name t) name).
  destruct (bstr_eqb name (t_name t)); [apply orb_true_r | apply orb_false_r].
Qed.

(* the header params at the head of a template body, as Registry.Add and as the checker's model read them *)
Lemma span_split nodes :
  split_header nodes = (flat_map docparam_sig (map header_to_docparam (fst (span_headers nodes))), snd (span_headers nodes)).
Proof.
  induction nodes as [|x r IH]; [reflexivity|].
  destruct x; cbn [split_header span_headers is_header_param]; try reflexivity.
  rewrite IH, header_param_optional_spec. destruct (span_headers r) as [hs rest]. reflexivity.
Qed.

Lemma span_headers_nil nodes :
  is_nil (flat_map docparam_sig (map header_to_docparam (fst (span_headers nodes)))) = is_nil (fst (span_headers nodes)).
Proof.
  destruct nodes as [|x r]; [reflexivity|]. destruct x; cbn [span_headers is_header_param]; try reflexivity.
  destruct (span_headers r) as [hs rest]. reflexivity.
Qed.

Lemma docparams_typed ps :
  forallb (fun n => match n with NSoyDocParam _ _ _ => true | _ => false end) ps = true ->
  soydoc_params ps = Some (flat_map docparam_sig ps) /\ is_nil (flat_map docparam_sig ps) = is_nil ps.
Proof.
  intros H. split; [apply (soydoc_params_spec ps H)|].
  destruct ps as [|x r]; [reflexivity|]. cbn [forallb] in H. apply andb_true_iff in H as [Hx _].
  destruct x; try discriminate. reflexivity.
Qed.

Section Units.
Variables (fname ftext nsn : bstr) (nsae : N).

Lemma units_tie body : forall prev reg acc,
  inv reg acc ->
  forallb template_typed (with_prev prev body) = true ->
  (prev = None -> match body with n :: _ => is_template n = false | [] => True end) ->
  match add_units fname ftext (file_units fname nsn nsae prev body) reg with
  | inr reg' => exists acc', add_templates fname (nsn, nsae) prev body acc = AddOk acc' /\ inv reg' acc'
  | inl e => add_templates fname (nsn, nsae) prev body acc = AddRej (cls_add e)
  end.
Proof.
  induction body as [|n r IH]; intros prev reg acc Hinv Hty Hfirst.
  - cbn. exists acc. split; [reflexivity | exact Hinv].
  - cbn [with_prev forallb] in Hty. apply andb_true_iff in Hty as [Hn Hr].
    assert (Hrest : forall reg' acc', inv reg' acc' ->
              match add_units fname ftext (file_units fname nsn nsae (Some n) r) reg' with
              | inr reg2 => exists acc2, add_templates fname (nsn, nsae) (Some n) r acc' = AddOk acc2 /\ inv reg2 acc2
              | inl e => add_templates fname (nsn, nsae) (Some n) r acc' = AddRej (cls_add e)
              end).
    { intros reg' acc' Hi. apply IH; [exact Hi | exact Hr | discriminate]. }
    cbn [file_units].
    destruct (is_template n) eqn:Ht; cbn [app].
    2:{ replace (add_templates fname (nsn, nsae) prev (n :: r) acc) with (add_templates fname (nsn, nsae) (Some n) r acc)
          by (destruct n; try reflexivity; discriminate Ht).
        apply Hrest. exact Hinv. }
    destruct n; try discriminate Ht.
    unfold template_typed in Hn. cbn [snd fst] in Hn.
    apply andb_true_iff in Hn as [Hn Hdoc]. apply andb_true_iff in Hn as [Hb _].
    destruct n; try discriminate Hb. rename nodes into bnodes.
    destruct prev as [pv|]; [|specialize (Hfirst eq_refl); discriminate Hfirst].
    cbn [add_templates template_local add_units].
    set (docparams := match pv with NSoyDoc _ ps => ps | _ => [] end).
    assert (Hsd : (match pv with NSoyDoc _ ps => soydoc_params ps | _ => Some [] end) = Some (flat_map docparam_sig docparams)
                  /\ is_nil (flat_map docparam_sig docparams) = is_nil docparams).
    { subst docparams. destruct pv; try (split; reflexivity). apply docparams_typed. exact Hdoc. }
    destruct Hsd as [-> Hsdnil].
    rewrite span_split, Hsdnil, span_headers_nil, (proj2 Hinv name).
    destruct (span_headers bnodes) as [hs rest]. cbn [fst snd].
    destruct hs as [|h hs'], docparams as [|d ds]; cbn [is_nil negb andb add_units tu_template t_name];
      [ | | | reflexivity (* both kinds of params *)].
    all: destruct (assoc_s name (r_files reg)); cbn [is_some]; [reflexivity (* the name is taken *)|]; rewrite ?app_nil_r.
    all: match goal with |- context [reg_append _ ?t ?x] =>
           apply (Hrest (reg_append reg t x) (acc ++ [t])), inv_append, Hinv end.
Qed.
End Units.

Lemma file_tie (r : creg) acc f :
  inv (cr_reg r) acc -> forallb template_typed (with_prev None (sf_body f)) = true ->
  match registry_add r (conv_file f) with
  | inr r' => exists acc', add_file acc f = AddOk acc' /\ inv (cr_reg r') acc'
  | inl e => add_file acc f = AddRej (cls_add e)
  end.
Proof.
  intros Hinv Hty. unfold registry_add, add_file. cbn [conv_file sfile_body sfile_name sfile_text].
  pose proof (find_namespace_tie (sf_body f)) as Hns. pose proof (find_namespace_head (sf_body f)) as Hhead.
  destruct (find_namespace (sf_body f)) as [e|[nsn nsae]].
  - destruct Hns as [-> He]. rewrite He. reflexivity.
  - rewrite Hns.
    pose proof (units_tie (sf_name f) (sf_text f) nsn nsae (sf_body f) None (cr_reg r) acc Hinv Hty
                  (fun _ => Hhead _ eq_refl)) as H.
    destruct (add_units _ _ _ _) as [e|reg']; [exact H|]. exact H.
Qed.

Lemma files_tie fs : forall (r : creg) acc,
  inv (cr_reg r) acc -> files_shaped fs = true ->
  match add_all_files r (map (fun f => SrcOk (conv_file f)) fs) with
  | COk r' => add_files acc fs = AddOk (r_templates (cr_reg r'))
  | CErr (EAdd _ e) => add_files acc fs = AddRej (cls_add e)
  | CErr _ => False
  end.
Proof.
  induction fs as [|f rest IH]; intros r acc Hinv Hsh.
  - cbn. destruct Hinv as [-> _]. reflexivity.
  - unfold files_shaped in Hsh. cbn [forallb] in Hsh. apply andb_true_iff in Hsh as [Hf Hrest].
    cbn [map add_all_files add_files].
    pose proof (file_tie r acc f Hinv Hf) as H.
    destruct (registry_add r (conv_file f)) as [e|r'].
    + rewrite H. reflexivity.
    + destruct H as (acc' & -> & Hinv'). apply IH; assumption.
Qed.

Lemma inv_empty : inv (cr_reg empty_creg) [].
Proof. split; reflexivity. Qed.

Theorem compile_check_models_agree ko0 fs :
  (forall ks, Permutation (ko0 ks) ks) ->
  files_shaped fs = true ->
  (forall ts, add_files [] fs = AddOk ts -> registry_maps_sorted (registry_of ts fs) = true) ->
  compile_check_c13 ko0 fs = compile_check fs.
Proof.
  intros Hp Hsh Hms. unfold compile_check_c13, compile_check.
  pose proof (files_tie fs empty_creg [] inv_empty Hsh) as H.
  destruct (add_all_files empty_creg _) as [r|e].
  - rewrite H. specialize (Hms _ H).
    exact (check_data_refs_models_agree ko0 (registry_of (r_templates (cr_reg r)) fs) Hp Hms).
  - destruct e; try contradiction. rewrite H. reflexivity.
Qed.
