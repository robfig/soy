(* lexer.run (Model/Lexer.v [run]): its unfolding equations, and the rule by which an invariant of the state
   functions is an invariant of the run; postconditions of computations in the outcome monad. *)
From Soy Require Import Model.Bytes Model.Outcome Model.Token Model.Lexer.
Open Scope Z_scope.

(* [x] returns only values that satisfy Q *)
Definition post {A} (Q : A -> Prop) (x : outcome A) : Prop := forall v, x = Ok v -> Q v.

Lemma post_ret {A} (Q : A -> Prop) a : Q a -> post Q (Ok a).
Proof. intros H v [= <-]. exact H. Qed.

Lemma post_bind {A B} (P : A -> Prop) (Q : B -> Prop) x f : post P x -> (forall a, P a -> post Q (f a)) -> post Q (bind x f).
Proof. intros Hx Hf v H. destruct x as [a| | | | |]; try discriminate H. exact (Hf a (Hx a eq_refl) v H). Qed.

Lemma post_any {A} (x : outcome A) : post (fun _ => True) x.
Proof. intros v _. exact I. Qed.

Section Run.
Variable uni_letter uni_digit : Z -> bool.
Variable inp : bstr.
Variable ilen base : Z.
Notation step := (step uni_letter uni_digit inp ilen base).
Notation run := (run uni_letter uni_digit inp ilen base).

Lemma run_done fuel l : run fuel LDone l = Ok l.
Proof. destruct fuel; reflexivity. Qed.

Lemma run_O st l : st <> LDone -> run O st l = OutOfFuel.
Proof. destruct st; congruence || reflexivity. Qed.

Lemma run_S fuel st l : st <> LDone -> run (S fuel) st l = '(st', l') <- step st l ;; run fuel st' l'.
Proof. destruct st; congruence || reflexivity. Qed.

Lemma lstate_done_dec st : st = LDone \/ st <> LDone.
Proof. destruct st; auto; right; discriminate. Qed.

(* [I st l]: what holds when the state function st is entered with the lexer l *)
Theorem run_invariant (I : lstate -> lx -> Prop) :
  (forall st l st' l', st <> LDone -> step st l = Ok (st', l') -> I st l -> I st' l') ->
  forall fuel st l l', run fuel st l = Ok l' -> I st l -> I LDone l'.
Proof.
  intros Hstep. induction fuel as [|f IH]; intros st l l' H Hi; destruct (lstate_done_dec st) as [->|Hst].
  - rewrite run_done in H. injection H as <-. exact Hi.
  - rewrite (run_O _ _ Hst) in H. discriminate H.
  - rewrite run_done in H. injection H as <-. exact Hi.
  - rewrite (run_S _ _ _ Hst) in H. destruct (step st l) as [[st1 l1]| | | | |] eqn:E; try discriminate H.
    exact (IH _ _ _ H (Hstep _ _ _ _ Hst E Hi)).
Qed.

End Run.
