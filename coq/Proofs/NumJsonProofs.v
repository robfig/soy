(* encoding/json's float layout (Model/NumJson.v): what can be said about the TEXT without a theory of the shortest
   digits.

   - [fl_to_json_chars]: every byte of the text of ANY float is a digit, '-', '+', '.' or 'e' -- so it contains no
     angle bracket, ampersand, quotation mark or backslash and no white space, whatever the digits are (Properties/C06.v states it);
   - [fmt_json_reads]: the three positional layouts and the exponent layout of [fmt_json] are RFC 8259 numbers --
     the number reader of Spec/Json.v consumes exactly the text, for every digit string without a leading zero,
     every position of the decimal point and every continuation that does not continue a number.

   NOT proved: [fl_to_string_dom x = Some s -> fl_to_json x = Some s] (on the exact printing domain the
   shortest digits ARE the exact decimal expansion).  What is proved of [Num.shortest_decimal] is that its digits
   round back to the float (Proofs/FloatRtDigits.v rt_shortest_decimal_sound), not that they are the shortest. *)
From Coq Require Import Lia ZifyBool List.
Import ListNotations.
From Soy Require Import Model.Bytes Model.Utf8 Model.Num Model.NumJson Spec.Json Proofs.MsgIdProofs Proofs.CodecJsonNum
  Proofs.FloatRtRound Proofs.FloatRtDigits.
Open Scope N_scope.

Definition jnum_char (c : N) : Prop := is_digit_byte c \/ c = 45 \/ c = 43 \/ c = 46 \/ c = 101.

Lemma jnum_char_inert c : jnum_char c -> c <> 60 /\ c <> 62 /\ c <> 38 /\ c <> 34 /\ c <> 92 /\ c <> 32 /\ c <> 10.
Proof. unfold jnum_char, is_digit_byte. lia. Qed.

Lemma jnum_digits l : Forall is_digit_byte l -> Forall jnum_char l.
Proof. apply Forall_impl. unfold jnum_char. tauto. Qed.

Lemma zeros_digits n : Forall is_digit_byte (zeros n).
Proof. unfold zeros. induction (Z.to_nat n) as [|k IH]; cbn [repeat]; constructor; [unfold is_digit_byte; lia | exact IH]. Qed.

Lemma dec_of_Z_jnum z : Forall jnum_char (dec_of_Z z).
Proof. eapply Forall_impl; [|apply dec_of_Z_chars]. unfold jnum_char. tauto. Qed.

Lemma Forall_firstn {A} (P : A -> Prop) n l : Forall P l -> Forall P (firstn n l).
Proof. revert n. induction l as [|x r IH]; intros [|n] H; cbn [firstn]; try constructor; inversion H; subst; auto. Qed.
Lemma Forall_skipn {A} (P : A -> Prop) n l : Forall P l -> Forall P (skipn n l).
Proof. revert n. induction l as [|x r IH]; intros [|n] H; cbn [skipn]; auto. inversion H; subst; auto. Qed.

(* [jc]: Forall jnum_char of a closed byte list, element by element *)
Ltac jc := repeat (apply Forall_cons; [unfold jnum_char, is_digit_byte; lia|]); try apply Forall_nil.

Theorem fmt_json_chars sign ds dp : Forall jnum_char sign -> Forall jnum_char ds -> Forall jnum_char (fmt_json sign ds dp).
Proof.
  intros Hs Hd. unfold fmt_json. cbv zeta.
  destruct ((dp - 1 <? -6)%Z || (21 <=? dp - 1)%Z).
  - apply Forall_app. split; [exact Hs|]. apply Forall_app. split.
    + destruct ds as [|d rest]; [constructor|]. inversion Hd; subst. constructor; [assumption|].
      destruct rest; [constructor|]. constructor; [unfold jnum_char; lia | assumption].
    + apply Forall_app. split; [|apply dec_of_Z_jnum]. destruct (dp - 1 <? 0)%Z; jc.
  - destruct (dp <=? 0)%Z.
    + apply Forall_app. split; [exact Hs|]. apply Forall_app. split; [jc|].
      apply Forall_app. split; [apply jnum_digits, zeros_digits | exact Hd].
    + destruct (Z.of_nat (length ds) <=? dp)%Z.
      * apply Forall_app. split; [exact Hs|]. apply Forall_app. split; [exact Hd | apply jnum_digits, zeros_digits].
      * apply Forall_app. split; [exact Hs|]. apply Forall_app. split; [apply Forall_firstn; exact Hd|].
        apply Forall_app. split; [jc | apply Forall_skipn; exact Hd].
Qed.

Lemma shortest_decimal_chars a e ds dp : shortest_decimal a e = Some (ds, dp) -> Forall jnum_char ds.
Proof.
  unfold shortest_decimal. cbv zeta.
  destruct (dec_exponent _ _) as [k|]; [|discriminate].
  destruct (shortest_from _ _ _ _ _ _ _ _) as [[c p]|]; [|discriminate].
  destruct (strip10 20 c p) as [c' p']. intros H. injection H as <- _. apply dec_of_Z_jnum.
Qed.

(* the text json.Marshal writes for a float, whatever float: digits, sign, point, exponent mark *)
Theorem fl_to_json_chars x s : fl_to_json x = Some s -> Forall jnum_char s.
Proof.
  destruct x as [|n|n|m e]; cbn [fl_to_json]; try discriminate.
  - destruct n; intros H; injection H as <-; jc.
  - cbv zeta. destruct (Z.abs m) as [|q|q]; try discriminate.
    destruct (strip2 q e) as [q' e']. destruct (_ && _); [|discriminate].
    destruct (shortest_decimal (Z.pos q') e') as [[ds dp]|] eqn:E; [|discriminate].
    intros H. injection H as <-. apply fmt_json_chars; [destruct (m <? 0)%Z; jc | eapply shortest_decimal_chars; exact E].
Qed.

Corollary fl_to_json_inert x s : fl_to_json x = Some s -> Forall (fun c => c <> 60 /\ c <> 62 /\ c <> 38) s.
Proof.
  intros H. eapply Forall_impl; [|apply (fl_to_json_chars x s H)]. intros c Hc. apply jnum_char_inert in Hc. tauto.
Qed.

(* the layouts are numbers of RFC 8259 *)

Lemma num_exp_run sgn exd rest : (sgn = 43 \/ sgn = 45) -> exd <> [] -> Forall is_digit_byte exd -> stop_nondigit rest ->
  exists ev, num_exp (101 :: sgn :: exd ++ rest) = Some (ev, rest).
Proof.
  intros Hs Hne Hd Hr. unfold num_exp. rewrite N.eqb_refl. cbn [orb].
  assert (E1 : eat 43 (43 :: exd ++ rest) = Some (exd ++ rest)) by reflexivity.
  assert (E2 : eat 43 (45 :: exd ++ rest) = None) by reflexivity.
  assert (E3 : eat 45 (45 :: exd ++ rest) = Some (exd ++ rest)) by reflexivity.
  destruct Hs as [-> | ->]; [rewrite E1 | rewrite E2, E3]; rewrite scan_digits_run by assumption;
    (destruct exd as [|x0 xr]; [congruence|]); cbn [length Nat.add Nat.eqb]; eexists; reflexivity.
Qed.

(* [-] d [. r] e(+|-) digits *)
Lemma json_number_sci pre neg0 d r sgn exd rest :
  (pre = [] /\ neg0 = false) \/ (pre = [45] /\ neg0 = true) ->
  is_digit_byte d -> d <> 48 -> Forall is_digit_byte r ->
  (sgn = 43 \/ sgn = 45) -> exd <> [] -> Forall is_digit_byte exd -> stop_nondigit rest ->
  exists v, json_number (pre ++ (d :: match r with [] => [] | _ => 46 :: r end) ++ 101 :: sgn :: exd ++ rest) = Some (v, rest).
Proof.
  intros Hpre Hd Hd0 Hr Hs Hne Hx Hrest.
  destruct (num_exp_run sgn exd rest Hs Hne Hx Hrest) as (ev & Hexp).
  pose proof (json_number_mant [d] r (101 :: sgn :: exd ++ rest) neg0 (or_intror (ex_intro _ d (ex_intro _ [] (conj eq_refl Hd0))))
                ltac:(constructor; [exact Hd|constructor]) Hr ltac:(split; [reflexivity|discriminate]) pre Hpre) as H.
  cbn [app] in H |- *. rewrite H, Hexp. destruct (dec_norm _ _). eexists; reflexivity.
Qed.

Lemma dec_of_Z_abs_digits z : Forall is_digit_byte (dec_of_Z (Z.abs z)) /\ dec_of_Z (Z.abs z) <> [].
Proof. rewrite dec_of_Z_nonneg by lia. split; [apply dec_of_N_digits | apply dec_of_N_nonempty]. Qed.

Lemma stop_num_nd rest : stop_num rest -> stop_nondigit rest.
Proof. apply stop_num_nondigit. Qed.

(* every layout of [fmt_json] is read back, completely, as one number *)
Theorem fmt_json_reads sign ds dp rest :
  (sign = [] \/ sign = [45]) ->
  (exists d r, ds = d :: r /\ d <> 48) -> Forall is_digit_byte ds -> stop_num rest ->
  exists v, json_number (fmt_json sign ds dp ++ rest) = Some (v, rest).
Proof.
  intros Hsign (d & r & -> & Hd0) Hds Hrest.
  assert (Hpre : exists neg0, (sign = [] /\ neg0 = false) \/ (sign = [45] /\ neg0 = true)).
  { destruct Hsign as [->| ->]; [exists false | exists true]; tauto. }
  destruct Hpre as (neg0 & Hpre).
  inversion Hds as [|? ? Hd Hr]; subst.
  unfold fmt_json. cbv zeta.
  destruct ((dp - 1 <? -6)%Z || (21 <=? dp - 1)%Z).
  - (* exponent layout *)
    destruct (dec_of_Z_abs_digits (dp - 1)) as (Hx & Hne).
    rewrite <- !app_assoc. cbn [app].
    apply (json_number_sci sign neg0 d r (if (dp - 1 <? 0)%Z then 45 else 43) _ rest Hpre Hd Hd0 Hr); try assumption.
    + destruct (dp - 1 <? 0)%Z; tauto.
    + apply stop_num_nondigit, Hrest.
  - destruct (Z.leb_spec dp 0) as [Hdp|Hdp].
    + (* 0.000ddd *)
      rewrite <- !app_assoc.
      pose proof (json_number_unsigned [48] (zeros (- dp) ++ d :: r) rest neg0 (or_introl eq_refl)
                    ltac:(repeat constructor; unfold is_digit_byte; lia)
                    ltac:(apply Forall_app; split; [apply zeros_digits | exact Hds]) Hrest sign Hpre) as H.
      destruct (zeros (- dp) ++ d :: r) as [|z0 zr] eqn:Ez; [destruct (zeros (- dp)); discriminate|].
      rewrite <- Ez in H. destruct (dec_norm _ _) as [m1 e1] in H. exists (JvNum neg0 m1 e1). rewrite <- H. f_equal; cbn [app]; rewrite <- ?app_assoc; reflexivity.
    + destruct (Z.leb_spec (Z.of_nat (length (d :: r))) dp) as [Hn|Hn].
      * (* dddd000 *)
        rewrite <- !app_assoc.
        pose proof (json_number_unsigned ((d :: r) ++ zeros (dp - Z.of_nat (length (d :: r)))) [] rest neg0
                      (or_intror (ex_intro _ d (ex_intro _ (r ++ zeros (dp - Z.of_nat (length (d :: r)))) (conj eq_refl Hd0))))
                      ltac:(apply Forall_app; split; [exact Hds | apply zeros_digits]) (Forall_nil _) Hrest sign Hpre) as H.
        destruct (dec_norm _ _) as [m1 e1] in H. exists (JvNum neg0 m1 e1). rewrite <- H. f_equal; cbn [app]; rewrite <- ?app_assoc; reflexivity.
      * (* dd.ddd *)
        rewrite <- !app_assoc.
        assert (Hk : exists k, Z.to_nat dp = S k) by (exists (Nat.pred (Z.to_nat dp)); lia). destruct Hk as (k & Hk).
        rewrite Hk. cbn [firstn skipn].
        assert (Hsk : skipn k r <> []).
        { intros E. apply (f_equal (@length N)) in E. rewrite skipn_length in E. cbn [length] in E, Hn. lia. }
        pose proof (json_number_unsigned (d :: firstn k r) (skipn k r) rest neg0
                      (or_intror (ex_intro _ d (ex_intro _ (firstn k r) (conj eq_refl Hd0))))
                      ltac:(constructor; [exact Hd | apply Forall_firstn; exact Hr])
                      ltac:(apply Forall_skipn; exact Hr) Hrest sign Hpre) as H.
        destruct (skipn k r) as [|s0 sr] eqn:Es; [congruence|].
        destruct (dec_norm _ _) as [m1 e1] in H. exists (JvNum neg0 m1 e1). rewrite <- H. f_equal; cbn [app]; rewrite <- ?app_assoc; reflexivity.
Qed.

(* the digit string of [shortest_decimal] is that of a positive integer: no sign, no leading zero -- so the text of
   EVERY float is read back as one number *)

Lemma shortest_decimal_head a e ds dp : (0 < a < two53)%Z -> shortest_decimal a e = Some (ds, dp) ->
  exists d r, ds = d :: r /\ d <> 48 /\ Forall is_digit_byte ds.
Proof.
  intros Ha. unfold shortest_decimal. cbv zeta.
  set (shift := (53 - (Z.log2 a + 1))%Z).
  set (s := (e - shift - 2)%Z).
  rewrite (proj1 (rt_up_if 2 s)), (proj2 (rt_up_if 2 s)).
  set (X := (4 * a * 2 ^ shift)%Z).
  destruct (dec_exponent _ _) as [k|]; [|discriminate].
  destruct (shortest_from _ _ _ _ _ _ _ _) as [[c p]|] eqn:Es; [|discriminate].
  destruct (strip10 20 c p) as [c' p'] eqn:E10. intros H. injection H as <- _.
  assert (Hshift : (0 <= shift)%Z).
  { assert (Z.log2 a < 53)%Z by (apply Z.log2_lt_pow2; [lia | exact (proj2 Ha)]). subst shift. lia. }
  assert (HX : (4 <= X)%Z).
  { subst X. pose proof (Z.pow_pos_nonneg 2 shift ltac:(lia) Hshift). nia. }
  assert (HLO : (0 < (if (a =? 1)%Z then X - 1 else X - 2) < X)%Z) by (destruct (a =? 1)%Z; lia).
  destruct (rt_search_sound _ _ _ _ _ _ _ _ _ _ _ _ _ HLO (rt_up_pos 2 s ltac:(lia)) (rt_up_pos 2 (- s) ltac:(lia)) Es E10) as [_ Hc'].
  destruct c' as [|q|q]; try lia. cbn [dec_of_Z].
  destruct (dec_of_N_pos_head q) as (d & r & E & Hdig & Hd0). exists d, r. rewrite E. auto.
Qed.

(* json.Marshal's text for a float -- ANY float it has a text for -- is one RFC 8259 number *)
Theorem fl_to_json_reads x s rest : fl_to_json x = Some s -> stop_num rest ->
  exists v, json_number (s ++ rest) = Some (v, rest).
Proof.
  intros Hs Hrest. destruct x as [|n|n|m e]; cbn [fl_to_json] in Hs; try discriminate.
  - pose proof (json_number_unsigned [48] [] rest n (or_introl eq_refl)
                  ltac:(repeat constructor; unfold is_digit_byte; lia) (Forall_nil _) Hrest (if n then [45] else [])
                  ltac:(destruct n; tauto)) as H.
    destruct (dec_norm _ _) as [m1 e1] in H. exists (JvNum n m1 e1). rewrite <- H.
    destruct n; injection Hs as <-; reflexivity.
  - cbv zeta in Hs. destruct (Z.abs m) as [|q|q]; try discriminate.
    destruct (strip2 q e) as [q' e'].
    destruct (Z.ltb_spec (Z.pos q') two53) as [Hlt|]; [|discriminate]. cbn [andb] in Hs.
    destruct (_ && _); [|discriminate].
    destruct (shortest_decimal (Z.pos q') e') as [[ds dp]|] eqn:E; [|discriminate].
    injection Hs as <-.
    destruct (shortest_decimal_head (Z.pos q') e' ds dp ltac:(lia) E) as (d & r & Eds & Hd0 & Hdig).
    apply fmt_json_reads; [destruct (m <? 0)%Z; tauto | exists d, r; tauto | exact Hdig | exact Hrest].
Qed.
