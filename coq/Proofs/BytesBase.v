(* Facts about the byte-string vocabulary of Model/Bytes.v (bstr_eqb, take, drop, is_prefix, concat_b, assoc_s) that
   hold of those definitions alone.  Imports Model/Bytes.v only. *)
From Soy Require Import Model.Bytes.

Lemma bstr_eqb_eq x y : bstr_eqb x y = true <-> x = y.
Proof.
  revert y. induction x as [|a x IH]; intros [|c y]; cbn [bstr_eqb]; try easy.
  rewrite andb_true_iff, N.eqb_eq, IH. split; [intros [-> ->]; reflexivity | intros [= -> ->]; auto].
Qed.

Lemma bstr_eqb_true x y : bstr_eqb x y = true -> x = y.
Proof. apply bstr_eqb_eq. Qed.

Lemma bstr_eqb_refl x : bstr_eqb x x = true.
Proof. now apply bstr_eqb_eq. Qed.

Lemma bstr_eqb_spec x y : reflect (x = y) (bstr_eqb x y).
Proof. apply iff_reflect. symmetry. apply bstr_eqb_eq. Qed.

Lemma bstr_eqb_neq x y : bstr_eqb x y = false <-> x <> y.
Proof. rewrite <- bstr_eqb_eq. now destruct (bstr_eqb x y). Qed.

Lemma bstr_eqb_sym x y : bstr_eqb x y = bstr_eqb y x.
Proof. destruct (bstr_eqb_spec x y) as [->|H]; [now rewrite bstr_eqb_refl|]. symmetry. apply bstr_eqb_neq. auto. Qed.

Lemma take_firstn n s : take n s = firstn n s.
Proof. revert s. induction n as [|n IH]; intros [|c s]; cbn [take firstn]; [reflexivity..|]. now rewrite IH. Qed.

Lemma drop_skipn n s : drop n s = skipn n s.
Proof. revert s. induction n as [|n IH]; intros [|c s]; cbn [drop skipn]; auto. Qed.

Lemma take_drop k s : take k s ++ drop k s = s.
Proof. rewrite take_firstn, drop_skipn. apply firstn_skipn. Qed.

Lemma take_length_min k s : length (take k s) = Nat.min k (length s).
Proof. rewrite take_firstn. apply firstn_length. Qed.

Lemma take_length k s : (k <= length s)%nat -> length (take k s) = k.
Proof. rewrite take_length_min. apply Nat.min_l. Qed.

Lemma take_length_le k s : (length (take k s) <= k)%nat.
Proof. rewrite take_length_min. apply Nat.le_min_l. Qed.

Lemma drop_length n s : length (drop n s) = (length s - n)%nat.
Proof. rewrite drop_skipn. apply skipn_length. Qed.

Lemma take_all k s : (length s <= k)%nat -> take k s = s.
Proof. rewrite take_firstn. apply firstn_all2. Qed.

Lemma take_whole s : take (length s) s = s.
Proof. now apply take_all. Qed.

Lemma drop_all k s : (length s <= k)%nat -> drop k s = [].
Proof. rewrite drop_skipn. apply skipn_all2. Qed.

Lemma drop_whole s : drop (length s) s = [].
Proof. now apply drop_all. Qed.

Lemma drop_nil_len n s : drop n s = [] -> (length s <= n)%nat.
Proof. intros H. apply (f_equal (@length N)) in H. rewrite drop_length in H. cbn [length] in H. lia. Qed.

Lemma drop_drop i j s : drop j (drop i s) = drop (i + j) s.
Proof.
  revert s. induction i as [|i IH]; intros [|c s]; cbn [drop Nat.add]; try reflexivity; [now destruct j | apply IH].
Qed.

Lemma take_take_le s j k : (j <= k)%nat -> take j (take k s) = take j s.
Proof. intros H. rewrite !take_firstn, firstn_firstn. now rewrite Nat.min_l. Qed.

Lemma take_app_le n s t : (n <= length s)%nat -> take n (s ++ t) = take n s.
Proof.
  intros H. rewrite !take_firstn, firstn_app. replace (n - length s)%nat with O by lia. apply app_nil_r.
Qed.

Lemma drop_app_le n s t : (n <= length s)%nat -> drop n (s ++ t) = drop n s ++ t.
Proof. intros H. rewrite !drop_skipn, skipn_app. now replace (n - length s)%nat with O by lia. Qed.

Lemma take_app_ge pre rest k : (length pre <= k)%nat -> take k (pre ++ rest) = pre ++ take (k - length pre) rest.
Proof. intros H. rewrite !take_firstn, firstn_app. now rewrite firstn_all2. Qed.

Lemma take_app_more a c k : take (length a + k) (a ++ c) = a ++ take k c.
Proof. rewrite take_app_ge by lia. do 2 f_equal. lia. Qed.

Lemma take_app_len a c : take (length a) (a ++ c) = a.
Proof. rewrite take_app_le by lia. apply take_whole. Qed.

Lemma drop_app_len a c : drop (length a) (a ++ c) = c.
Proof. rewrite drop_app_le by lia. now rewrite drop_whole. Qed.

Lemma is_prefix_app p s t : is_prefix p s = true -> is_prefix p (s ++ t) = true.
Proof.
  revert s. induction p as [|a p IH]; intros [|c s] H; cbn [is_prefix app] in *; try easy.
  apply andb_prop in H as [-> H]. now apply IH.
Qed.

Lemma is_prefix_refl p : is_prefix p p = true.
Proof. induction p as [|a p IH]; cbn [is_prefix]; [reflexivity|]. now rewrite N.eqb_refl. Qed.

Lemma is_prefix_app_self p s : is_prefix p (p ++ s) = true.
Proof. apply is_prefix_app, is_prefix_refl. Qed.

Lemma is_prefix_length p s : is_prefix p s = true -> (length p <= length s)%nat.
Proof.
  revert s. induction p as [|a p IH]; intros [|c s] H; cbn [is_prefix length] in *; try easy; [lia|].
  apply andb_prop in H as [_ H]. apply IH in H. lia.
Qed.

Lemma concat_b_app x y : concat_b (x ++ y) = concat_b x ++ concat_b y.
Proof. induction x as [|a x IH]; cbn [app concat_b]; [reflexivity|]. now rewrite IH, app_assoc. Qed.

Lemma assoc_s_app {A} k (l1 l2 : list (bstr * A)) :
  assoc_s k (l1 ++ l2) = match assoc_s k l1 with Some v => Some v | None => assoc_s k l2 end.
Proof.
  induction l1 as [|[k' v] r IH]; cbn [app assoc_s]; [reflexivity|]. destruct (bstr_eqb k k'); [reflexivity | exact IH].
Qed.

Lemma assoc_s_In {A} k (l : list (bstr * A)) v : assoc_s k l = Some v -> In (k, v) l.
Proof.
  induction l as [|[k' v'] r IH]; cbn [assoc_s]; [discriminate|].
  destruct (bstr_eqb_spec k k') as [->|_]; [intros [= ->]; now left | right; auto].
Qed.

Lemma assoc_s_in {A} (k : bstr) (l : list (bstr * A)) v : assoc_s k l = Some v -> exists k', In (k', v) l.
Proof. intros H. exists k. now apply assoc_s_In. Qed.

Lemma assoc_In {A} k (l : list (N * A)) v : assoc k l = Some v -> In (k, v) l.
Proof.
  induction l as [|[k' v'] r IH]; cbn [assoc]; [discriminate|].
  destruct (N.eqb_spec k k') as [->|_]; [intros [= ->]; now left | right; auto].
Qed.
