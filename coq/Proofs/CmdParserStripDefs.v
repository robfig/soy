(* The command-level parser model (Model/Parser.v) does not look at item positions on its successful
   runs.  Definitions, the relation on states, the primitives and the bind lemma. *)
From Soy Require Import Model.Bytes Model.Num Model.Values Model.Ast Model.Token Model.RawText Model.ExprParser Model.Parser
  Generated.Tables Spec.ExprSyntax Proofs.ExprParserStrip.
Require Import Lia List.
Import ListNotations.
Open Scope N_scope.

(* every position of a command-level tree set to 0; expression-valued fields by [strip_pos] *)
Fixpoint cps_strip (n : node) : node :=
  match n with
  | NList _ l => NList 0 (map cps_strip l)
  | NRawText _ t => NRawText 0 t
  | NCss _ e sfx => NCss 0 (option_map strip_pos e) sfx
  | NLog _ body => NLog 0 (cps_strip body)
  | NDebugger _ => NDebugger 0
  | NIf _ conds => NIf 0 (map cps_strip conds)
  | NIfCond _ c body => NIfCond 0 (option_map strip_pos c) (cps_strip body)
  | NFor _ v lst body ie => NFor 0 v (strip_pos lst) (cps_strip body) (option_map cps_strip ie)
  | NSwitch _ v cases => NSwitch 0 (strip_pos v) (map cps_strip cases)
  | NSwitchCase _ vals body => NSwitchCase 0 (map strip_pos vals) (cps_strip body)
  | NCall _ name all data params => NCall 0 name all (option_map strip_pos data) (map cps_strip params)
  | NParamValue _ k v => NParamValue 0 k (strip_pos v)
  | NParamContent _ k c => NParamContent 0 k (cps_strip c)
  | NLetValue _ nm e => NLetValue 0 nm (strip_pos e)
  | NLetContent _ nm body => NLetContent 0 nm (cps_strip body)
  | NMsg _ id meaning desc body => NMsg 0 id meaning desc (map cps_strip body)
  | NMsgPlaceholder _ nm body => NMsgPlaceholder 0 nm (cps_strip body)
  | NMsgHtmlTag _ t => NMsgHtmlTag 0 t
  | NMsgPlural _ vn v cases dflt => NMsgPlural 0 vn (strip_pos v) (map cps_strip cases) (map cps_strip dflt)
  | NMsgPluralCase _ v body => NMsgPluralCase 0 v (map cps_strip body)
  | NTemplate _ name body ae priv => NTemplate 0 name (cps_strip body) ae priv
  | NNamespace _ name ae => NNamespace 0 name ae
  | NSoyDoc _ params => NSoyDoc 0 (map cps_strip params)
  | NSoyDocParam _ name opt => NSoyDocParam 0 name opt
  | NHeaderParam _ opt name typ d => NHeaderParam 0 opt name typ (option_map strip_pos d)
  | NLiteral _ body => NLiteral 0 body
  | NIdent _ i => NIdent 0 i
  | NOther _ what => NOther 0 what
  | e => strip_pos e
  end.

(* the tree-valued fields of the three constructors whose equalities the proofs take apart: applying this
   function is much cheaper to check than [injection] on an equality between nodes (fifty constructors) *)
Definition cps_parts (n : node) : list node * list node * list node :=
  match n with
  | NSwitch _ v cs => ([v], cs, [])
  | NSwitchCase _ vs b => (vs, [b], [])
  | NMsgPlural _ _ v cs d => ([v], cs, d)
  | _ => ([], [], [])
  end.

Definition cps_R (s s' : cst) : Prop :=
  zs (c_p s) = zs (c_p s') /\ c_ns s = c_ns s' /\ c_al s = c_al s' /\ c_inmsg s = c_inmsg s' /\ c_scans s = c_scans s'.

Definition cps_ok {A} (eqv : A -> A -> Prop) (r r' : cres A) : Prop :=
  forall a s1, r = COk a s1 -> exists a' s1', r' = COk a' s1' /\ eqv a a' /\ cps_R s1 s1'.

(* the relations on values *)
Definition cps_teq (t t' : tok) : Prop := strip_tok t = strip_tok t'.
Definition cps_xeq (n n' : node) : Prop := strip_pos n = strip_pos n'.
Definition cps_neq (n n' : node) : Prop := cps_strip n = cps_strip n'.
Definition cps_leq (l l' : list node) : Prop := map cps_strip l = map cps_strip l'.
Definition cps_xleq (l l' : list node) : Prop := map strip_pos l = map strip_pos l'.

Lemma cps_ok_ret {A} (eqv : A -> A -> Prop) a a' s s' : eqv a a' -> cps_R s s' -> cps_ok eqv (COk a s) (COk a' s').
Proof. intros Ha Hs x s1 H. injection H as <- <-. eauto. Qed.
Lemma cps_ok_err {A} (eqv : A -> A -> Prop) t c s r' : cps_ok eqv (CErr t c s) r'.
Proof. intros x s1 H. discriminate H. Qed.
Lemma cps_ok_crash {A} (eqv : A -> A -> Prop) m r' : cps_ok eqv (CCrash m) r'.
Proof. intros x s1 H. discriminate H. Qed.
Lemma cps_ok_fuel {A} (eqv : A -> A -> Prop) r' : cps_ok eqv CFuel r'.
Proof. intros x s1 H. discriminate H. Qed.

Lemma cps_ok_bind {A B} (eqa : A -> A -> Prop) (eqb : B -> B -> Prop) x x' k k' :
  cps_ok eqa x x' ->
  (forall a a' s s', eqa a a' -> cps_R s s' -> cps_ok eqb (k a s) (k' a' s')) ->
  cps_ok eqb (cbind x k) (cbind x' k').
Proof.
  intros Hx Hk. destruct x as [a s|t c s|m|]; cbn [cbind]; try (intros y s1 H; discriminate H).
  destruct (Hx a s eq_refl) as (a' & s' & -> & Ha & Hs). cbn [cbind]. apply Hk; assumption.
Qed.

Lemma cps_ok_weaken {A} (eqa eqb : A -> A -> Prop) r r' :
  (forall a a', eqa a a' -> eqb a a') -> cps_ok eqa r r' -> cps_ok eqb r r'.
Proof. intros Himp H a s1 E. destruct (H a s1 E) as (a' & s1' & E' & Ha & Hs). eauto 6. Qed.

Lemma cps_error_at_l {A} (eqv : A -> A -> Prop) inlen t c s r' : cps_ok eqv (c_error_at inlen t c s) r'.
Proof. unfold c_error_at. destruct (t_pos t <=? inlen); intros x s1 H; discriminate H. Qed.
Lemma cps_errorf_l {A} (eqv : A -> A -> Prop) inlen c s r' : cps_ok eqv (c_errorf inlen c s) r'.
Proof. unfold c_errorf. destruct (3 <=? p_peek (c_p s))%nat; [apply cps_ok_crash | apply cps_error_at_l]. Qed.
Lemma cps_unexp_l {A} (eqv : A -> A -> Prop) inlen t c s r' : cps_ok eqv (c_unexp inlen t c s) r'.
Proof. unfold c_unexp. destruct (tis t pit_Error); apply cps_error_at_l. Qed.

(* a left-hand run that is an error, a crash or out of fuel: cps_ok holds whatever the right-hand run is *)
Ltac cps_triv :=
  first [ apply cps_unexp_l | apply cps_errorf_l | apply cps_error_at_l | apply cps_ok_crash | apply cps_ok_fuel | apply cps_ok_err ].

Lemma cps_teq_typ t t' : cps_teq t t' -> t_typ t = t_typ t'.
Proof. intros H. apply (f_equal t_typ) in H. exact H. Qed.
Lemma cps_teq_val t t' : cps_teq t t' -> t_val t = t_val t'.
Proof. intros H. apply (f_equal t_val) in H. exact H. Qed.
Lemma cps_teq_tis t t' : cps_teq t t' -> forall c, tis t c = tis t' c.
Proof. intros H c. unfold tis. rewrite (cps_teq_typ _ _ H). reflexivity. Qed.
Lemma cps_teq_refl t : cps_teq t t. Proof. reflexivity. Qed.

(* rewrite the second run's token tests into the first run's *)
Ltac cps_tok H := rewrite <- ?(cps_teq_tis _ _ H), <- ?(cps_teq_val _ _ H), <- ?(cps_teq_typ _ _ H).

Lemma cps_strip_shift base l : map strip_tok (map (shift_tok base) l) = map strip_tok l.
Proof. rewrite map_map. apply map_ext. intros t. reflexivity. Qed.

Lemma cps_R_refl s : cps_R s s. Proof. repeat split. Qed.
Lemma cps_R_set_p s s' p p' : cps_R s s' -> zs p = zs p' -> cps_R (set_p s p) (set_p s' p').
Proof. intros (Hp & Hn & Ha & Hi & Hs) H. repeat split; assumption. Qed.
Lemma cps_R_backup s s' : cps_R s s' -> cps_R (c_backup s) (c_backup s').
Proof.
  intros H. apply cps_R_set_p; [exact H|]. destruct H as (Hp & _).
  rewrite <- !p_backup_zs. rewrite Hp. reflexivity.
Qed.
Lemma cps_zs_backup2 st t : zs (p_backup2 st t) = p_backup2 (zs st) (strip_tok t). Proof. reflexivity. Qed.
Lemma cps_R_backup2 s s' t t' : cps_R s s' -> cps_teq t t' -> cps_R (c_backup2 s t) (c_backup2 s' t').
Proof.
  intros H Ht. apply cps_R_set_p; [exact H|]. destruct H as (Hp & _).
  rewrite !cps_zs_backup2. rewrite Hp, Ht. reflexivity.
Qed.
Lemma cps_R_set_ns s s' ns : cps_R s s' -> cps_R (set_ns s ns) (set_ns s' ns).
Proof. intros (Hp & Hn & Ha & Hi & Hs). repeat split; assumption. Qed.
Lemma cps_R_add_alias s s' k v : cps_R s s' -> cps_R (add_alias s k v) (add_alias s' k v).
Proof. intros (Hp & Hn & Ha & Hi & Hs). repeat split; try assumption. cbn [add_alias c_al]. rewrite Ha. reflexivity. Qed.
Lemma cps_R_set_inmsg s s' x : cps_R s s' -> cps_R (set_inmsg s x) (set_inmsg s' x).
Proof. intros (Hp & Hn & Ha & Hi & Hs). repeat split; assumption. Qed.
Lemma cps_R_add_scan s s' r : cps_R s s' -> cps_R (add_scan s r) (add_scan s' r).
Proof. intros (Hp & Hn & Ha & Hi & Hs). repeat split; try assumption. cbn [add_scan c_scans]. rewrite Hs. reflexivity. Qed.
Lemma cps_R_peek s s' : cps_R s s' -> p_peek (c_p s) = p_peek (c_p s').
Proof. intros (Hp & _). apply (f_equal p_peek) in Hp. exact Hp. Qed.
Lemma cps_R_inmsg s s' : cps_R s s' -> c_inmsg s = c_inmsg s'.
Proof. intros (_ & _ & _ & Hi & _). exact Hi. Qed.
Lemma cps_R_ns s s' : cps_R s s' -> c_ns s = c_ns s'.
Proof. intros (_ & Hn & _). exact Hn. Qed.
Lemma cps_R_resolve s s' name : cps_R s s' -> resolve_name s name = resolve_name s' name.
Proof. intros (_ & Hn & Ha & _). unfold resolve_name. rewrite Hn, Ha. reflexivity. Qed.

Lemma cps_next s s' : cps_R s s' -> cps_ok cps_teq (c_next s) (c_next s').
Proof.
  intros H. unfold c_next. rewrite <- (cps_R_peek _ _ H).
  destruct (3 <=? p_peek (c_p s))%nat; [cps_triv|].
  pose proof (p_next_zs (c_p s)) as E1. pose proof (p_next_zs (c_p s')) as E2.
  destruct H as (Hp & Hrest). rewrite Hp in E1. rewrite E1 in E2.
  destruct (p_next (c_p s)) as [t p1]. destruct (p_next (c_p s')) as [t' p1']. cbn [fst snd] in E2.
  pose proof (f_equal fst E2) as Et. pose proof (f_equal snd E2) as Ep. cbn [fst snd] in Et, Ep.
  apply cps_ok_ret; [exact Et|]. apply cps_R_set_p; [|exact Ep]. split; assumption.
Qed.

Lemma cps_peek s s' : cps_R s s' -> cps_ok cps_teq (c_peek s) (c_peek s').
Proof.
  intros H. unfold c_peek. rewrite <- (cps_R_peek _ _ H).
  destruct (3 <=? p_peek (c_p s))%nat; [cps_triv|].
  pose proof (p_peek_zs (c_p s)) as E1. pose proof (p_peek_zs (c_p s')) as E2.
  destruct H as (Hp & Hrest). rewrite Hp in E1. rewrite E1 in E2.
  destruct (p_peek_tok (c_p s)) as [t p1]. destruct (p_peek_tok (c_p s')) as [t' p1']. cbn [fst snd] in E2.
  pose proof (f_equal fst E2) as Et. pose proof (f_equal snd E2) as Ep. cbn [fst snd] in Et, Ep.
  apply cps_ok_ret; [exact Et|]. apply cps_R_set_p; [|exact Ep]. split; assumption.
Qed.

Lemma cps_expect inlen inlen' typ ctx s s' :
  cps_R s s' -> cps_ok cps_teq (c_expect inlen typ ctx s) (c_expect inlen' typ ctx s').
Proof.
  intros H. unfold c_expect. eapply cps_ok_bind; [apply cps_next; exact H|].
  intros t t' s1 s1' Ht Hs. cbv beta. cps_tok Ht.
  destruct (tis t typ); [apply cps_ok_ret; assumption | cps_triv].
Qed.

Lemma cps_tail1 v s s' : cps_R s s' -> cps_ok eq (tail1 v s) (tail1 v s').
Proof. intros H. unfold tail1. destruct v; [cps_triv | apply cps_ok_ret; [reflexivity | exact H]]. Qed.

Lemma cps_expr_run f prec p p' n p1 :
  zs p = zs p' -> parse_expr f prec p = POk n p1 ->
  exists n' p1', parse_expr f prec p' = POk n' p1' /\ strip_pos n = strip_pos n' /\ zs p1 = zs p1'.
Proof.
  intros Hp E. destruct (parse_expr_sim f prec p) as [E1 _]. destruct (parse_expr_sim f prec p') as [E2 _].
  rewrite Hp in E1. rewrite <- E1 in E2. rewrite E in E2. cbn [zr] in E2.
  destruct (zr_ok_inv _ _ _ _ E2) as (n' & p1' & En & Hn & Hz). eauto 6.
Qed.

Lemma cps_lift_expr inlen inlen' f prec s s' :
  cps_R s s' -> cps_ok cps_xeq (lift_expr inlen parse_expr f prec s) (lift_expr inlen' parse_expr f prec s').
Proof.
  intros H a s1 E. unfold lift_expr in *. destruct (parse_expr f prec (c_p s)) as [n p1|t c p1|m|] eqn:Ep.
  - injection E as <- <-. destruct (cps_expr_run f prec _ (c_p s') _ _ (proj1 H) Ep) as (n' & p1' & -> & Hn & Hz).
    exists n', (set_p s' p1'). split; [reflexivity|]. split; [exact Hn|]. apply cps_R_set_p; assumption.
  - destruct (t_pos t <=? inlen); discriminate E.
  - discriminate E.
  - discriminate E.
Qed.

Section Quoted.
Variables (inlen inlen' : N) (lexq : bstr -> list tok) (efuel : list tok -> nat).
Hypothesis Hefuel : forall ts ts', map strip_tok ts = map strip_tok ts' -> efuel ts = efuel ts'.

Lemma cps_quoted str s s' :
  cps_R s s' ->
  cps_ok cps_xeq (parse_quoted_expr inlen lexq parse_expr efuel str s) (parse_quoted_expr inlen' lexq parse_expr efuel str s').
Proof.
  intros H. unfold parse_quoted_expr. rewrite <- (cps_R_peek _ _ H).
  destruct (3 <=? p_peek (c_p s))%nat; [cps_triv|]. cbv zeta.
  set (ts := map (shift_tok _) (lexq str)). set (ts' := map (shift_tok _) (lexq str)).
  assert (Hts : map strip_tok ts = map strip_tok ts') by (unfold ts, ts'; rewrite !cps_strip_shift; reflexivity).
  assert (Hlen : length ts = length ts') by (unfold ts, ts'; rewrite !map_length; reflexivity).
  rewrite <- (Hefuel _ _ Hts). rewrite <- Hlen.
  intros a s1 E.
  destruct (parse_expr (efuel ts) 0 (pst_init ts)) as [n p1|t c p1|m|] eqn:Ep.
  - injection E as <- <-.
    assert (Hz : zs (pst_init ts) = zs (pst_init ts')) by (rewrite !zs_init, Hts; reflexivity).
    destruct (cps_expr_run _ _ _ _ _ _ Hz Ep) as (n' & p1' & -> & Hn & Hz1).
    apply (f_equal p_recv) in Hz1. cbn [zs p_recv] in Hz1. rewrite <- Hz1.
    eexists _, _. split; [reflexivity|]. split; [exact Hn|]. apply cps_R_add_scan. exact H.
  - destruct (t_pos t <=? _); discriminate E.
  - discriminate E.
  - discriminate E.
Qed.
End Quoted.

Lemma cps_expr_fuel ts ts' : map strip_tok ts = map strip_tok ts' -> expr_fuel ts = expr_fuel ts'.
Proof.
  intros H. unfold expr_fuel. apply (f_equal (@length tok)) in H. rewrite !map_length in H. rewrite H. reflexivity.
Qed.

Lemma cps_leq_app l l' x x' : cps_leq l l' -> cps_neq x x' -> cps_leq (l ++ [x]) (l' ++ [x']).
Proof. unfold cps_leq, cps_neq. intros Hl Hx. rewrite !map_app. cbn [map]. rewrite Hl, Hx. reflexivity. Qed.
Lemma cps_xleq_app l l' x x' : cps_xleq l l' -> cps_xeq x x' -> cps_xleq (l ++ [x]) (l' ++ [x']).
Proof. unfold cps_xleq, cps_xeq. intros Hl Hx. rewrite !map_app. cbn [map]. rewrite Hl, Hx. reflexivity. Qed.
Lemma cps_leq_length l l' : cps_leq l l' -> length l = length l'.
Proof. intros H. apply (f_equal (@length node)) in H. rewrite !map_length in H. exact H. Qed.
Lemma cps_leq_nil : cps_leq [] []. Proof. reflexivity. Qed.
Lemma cps_xleq_nil : cps_xleq [] []. Proof. reflexivity. Qed.

(* [cps L as a a' Ha Hs]: both runs start with the step that lemma L relates; name its two results, their
   relation and the relation of the states it leaves.  The premises of L are taken from the context. *)
Create HintDb cps.
#[export] Hint Resolve cps_R_backup cps_R_backup2 cps_R_set_inmsg cps_leq_nil cps_xleq_nil : cps.
Tactic Notation "cps" uconstr(L) "as" simple_intropattern(a) simple_intropattern(a') simple_intropattern(Ha) ident(Hs) :=
  eapply cps_ok_bind; [eapply L; eauto with cps|]; intros a a' ? ? Ha Hs; cbv beta.
(* the step is next / expect: rewrite the second run's tests on the item into the first run's *)
Tactic Notation "cps_nx" ident(t) ident(t') ident(Ht) ident(Hs) := cps cps_next as t t' Ht Hs; cps_tok Ht.
Tactic Notation "cps_ex" ident(t) ident(t') ident(Ht) ident(Hs) := cps cps_expect as t t' Ht Hs; cps_tok Ht.
