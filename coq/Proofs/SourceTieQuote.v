(* Source tie, family 72-gotrans-rawtext-quote, the quote part (parse/quote.go): the escape
   table and the byte search of unquoteString (Model/Quote.v) against the same function and
   table as gotrans translates them from the source of the tree under check. *)
From Coq Require Import ZArith NArith Bool Lia ZifyBool List.
From Soy Require Import Model.Bytes Generated.Tables Model.Quote Proofs.SourceTieBase.
Import ListNotations.
Open Scope N_scope.

(* quote.go contains(s, c): Model/Quote.v unquote_string tests [mem c body] *)
Lemma quote_contains_matches_source (s : bstr) (c : N) : mem c s = src_parse_contains s (Z.of_N c).
Proof.
  unfold src_parse_contains, mem. cbv zeta. rewrite find_existsb.
  apply st_existsb_ext. intros a. lia.
Qed.

(* quote.go unescapes[r] *)
Lemma unescapes_table_matches_source (r : N) :
  option_map Z.of_N (assoc r unescapes_table) = go_assoc_z (Z.of_N r) src_parse_unescapes.
Proof.
  apply (assoc_z_ext Z.of_N Z.eqb); [exact Z_eqb_true|vm_compute; reflexivity|vm_compute; reflexivity].
Qed.

Lemma unescape_of_matches_source (r : N) :
  match unescape_of r with Some x => (Z.of_N x, true) | None => (0%Z, false) end =
  (go_lookup_z (Z.of_N r) src_parse_unescapes 0%Z, go_has_z (Z.of_N r) src_parse_unescapes).
Proof.
  unfold unescape_of, go_lookup_z, go_has_z. rewrite <- unescapes_table_matches_source.
  destruct (assoc r unescapes_table); reflexivity.
Qed.
