(* C19, parse half.

   Part 1: lineNumber / columnNumber ([line_at], [col_at]) -- the line lies inside the input, is
           monotone in the position, and is the line of the byte just before the position whenever
           that byte is not a line feed.
   Part 2: the token plumbing of Model/Token.v: which token errorf takes its position from
           ([err_tok]) after next / backup / peek, and why the pinned `unexpected` reported 1:0
           (ledger P5): after a look-ahead past the last item the current token is the zero item.
   Part 3: Model/Parser.v: [c_unexp] reports at the token it is given; textOrTag handed a
           lexical-error item reports that very item (the P5 site after repair bb87cc7); the print
           command's argument loop reports the token after the expression that is neither `}`
           nor `|` (print_trailing_token_reported).
   That every error of the entry point lies inside the input is Proofs/ParseErrBound.v; the scanner's
   stray-brace and illegal-character error items are Proofs/LexErrPos.v. *)
From Soy Require Import Model.Bytes Model.Utf8 Model.Outcome Model.Num Model.Values Model.Ast Model.Token
  Model.Interp Model.Lexer Spec.ErrPos Generated.Tables Proofs.BytesBase.
From Coq Require Import ZifyBool Lia.
Open Scope N_scope.

(* lexer.columnNumber: pos - (index of the last LF before pos, or 0 when there is none) *)
Fixpoint last_nl (s : bstr) (i : nat) : option nat :=
  match s with
  | [] => None
  | c :: r => match last_nl r (S i) with
              | Some j => Some j
              | None => if c =? 10 then Some i else None
              end
  end.
Definition col_at (src : bstr) (pos : N) : N :=
  match last_nl (take (N.to_nat pos) src) 0 with
  | Some j => pos - N.of_nat j
  | None => pos
  end.

Lemma count_nl_app a c : count_nl (a ++ c) = count_nl a + count_nl c.
Proof. induction a as [|x r IH]; cbn [app count_nl]; [lia|]. rewrite IH. lia. Qed.

Lemma count_nl_take k : forall s, count_nl (take k s) <= count_nl s.
Proof.
  induction k as [|k IH]; intros s; cbn [take]; [cbn; lia|].
  destruct s as [|c r]; [cbn; lia|]. cbn [count_nl]. specialize (IH r). lia.
Qed.

Lemma count_nl_take_mono (s : bstr) j k : (j <= k)%nat -> count_nl (take j s) <= count_nl (take k s).
Proof. intros H. rewrite <- (take_take_le s j k H). apply count_nl_take. Qed.

Theorem line_at_monotone src p q : p <= q -> line_at src p <= line_at src q.
Proof. intros H. unfold line_at. pose proof (count_nl_take_mono src (N.to_nat p) (N.to_nat q)). lia. Qed.

Theorem line_at_inside src p : 1 <= line_at src p <= lines src.
Proof. unfold line_at, lines. pose proof (count_nl_take (N.to_nat p) src). lia. Qed.

(* the position just after a byte that is not a line feed is on the line of that byte *)
Theorem line_after_byte pre c post :
  c <> 10 ->
  line_at (pre ++ c :: post) (N.of_nat (length pre) + 1) = 1 + count_nl pre /\
  line_at (pre ++ c :: post) (N.of_nat (length pre)) = 1 + count_nl pre.
Proof.
  intros Hc. unfold line_at. split.
  - replace (N.to_nat (N.of_nat (length pre) + 1)) with (length pre + 1)%nat by lia.
    rewrite take_app_more. cbn [take]. rewrite count_nl_app. cbn [count_nl].
    destruct (N.eqb_spec c 10); [contradiction | lia].
  - rewrite Nat2N.id. rewrite take_app_len. reflexivity.
Qed.

(* errorf's "current token" is token[peekCount-1]; the item next() has just returned is
   token[peekCount].  They coincide unless two items were pushed back (backup2): then errorf
   reports at the item AFTER the one just returned (one item later, in practice the same tag). *)
Lemma err_tok_after_next s : (p_peek s <= 1)%nat -> err_tok (snd (p_next s)) = fst (p_next s).
Proof.
  intros Hp. unfold p_next. destruct (p_peek s) as [|[|k]] eqn:E; try lia.
  - unfold recv. destruct (p_rest s); reflexivity.
  - reflexivity.
Qed.
Lemma err_tok_after_next_backup2 s t1 :
  err_tok (snd (p_next (p_backup2 s t1))) = p_tok0 s /\ fst (p_next (p_backup2 s t1)) = t1.
Proof. split; reflexivity. Qed.

(* tree.next twice, tree.backup once (textOrTag's look-ahead), then errorf: the position comes from
   the SECOND item read, not from the first *)
Lemma err_tok_after_lookahead s :
  p_peek s = 0%nat ->
  let '(t1, s1) := p_next s in
  let '(t2, s2) := p_next s1 in
  err_tok (p_backup s2) = t2.
Proof.
  intros Hp. unfold p_next at 1. rewrite Hp. unfold recv.
  destruct (p_rest s) as [|a r]; cbn; unfold p_next; cbn; unfold recv; cbn; [reflexivity | destruct r; reflexivity].
Qed.

(* ... and once the scanner has closed its channel that second item is the zero item: position 0,
   which lineNumber / columnNumber turn into 1:0 -- ledger P5, the behaviour before bb87cc7 *)
Theorem P5_lookahead_past_the_end e :
  let s := pst_init [e] in
  let '(t1, s1) := p_next s in
  let '(t2, s2) := p_next s1 in
  t1 = e /\ err_tok (p_backup s2) = zero_tok /\ forall src, line_at src (t_pos zero_tok) = 1 /\ col_at src (t_pos zero_tok) = 0.
Proof. cbn. repeat split. Qed.

From Soy Require Import Model.RawText Model.ExprParser Model.Parser.

(* tree.unexpected reports at the token it is given (after bb87cc7), never at the current token *)
Theorem unexpected_reports_its_token inlen A token ctx s r :
  @c_unexp inlen A token ctx s = r ->
  (t_pos token <= inlen -> exists cls, r = CErr token cls s) /\
  (inlen < t_pos token -> r = CCrash e_pslice).
Proof.
  intros <-. unfold c_unexp, c_error_at. split; intros H.
  - apply N.leb_le in H. destruct (tis token pit_Error); rewrite H; eexists; reflexivity.
  - apply N.leb_gt in H. destruct (tis token pit_Error); rewrite H; reflexivity.
Qed.

(* the P5 site: itemList hands textOrTag a lexical-error item (a stray closing brace in text, an
   unclosed comment, ... : the scanner's last item).  Whatever the parser state, the error that
   comes back is positioned at THAT item. *)
Theorem text_or_tag_error_item inlen lexq unq pexpr efuel pe w lf e until s :
  t_typ e = pit_Error -> one_of pit_Error until = false ->
  (p_peek (c_p s) <= 2)%nat -> t_pos e <= inlen ->
  exists s', text_or_tag inlen lexq unq pexpr efuel pe w (S lf) e until s = CErr e e_lexical s'.
Proof.
  intros Ht Hu Hp Hpos. unfold text_or_tag.
  assert (Hc : tis e pit_Comment = false) by (unfold tis; rewrite Ht; reflexivity).
  cbn [skip_comments]. rewrite Hc. cbn [cbind].
  rewrite Ht, Hu.
  unfold c_next. destruct (Nat.leb_spec 3 (p_peek (c_p s))) as [H3|H3]; [lia|].
  destruct (p_next (c_p s)) as [t2 p'] eqn:En. cbn [cbind].
  assert (Hld : tis e pit_LeftDelim = false) by (unfold tis; rewrite Ht; reflexivity).
  assert (Htx : tis e pit_Text = false) by (unfold tis; rewrite Ht; reflexivity).
  assert (Hsd : tis e pit_SoyDocStart = false) by (unfold tis; rewrite Ht; reflexivity).
  rewrite Hld, Htx, Hsd. cbn [andb].
  unfold c_unexp. assert (He : tis e pit_Error = true) by (unfold tis; rewrite Ht; reflexivity).
  rewrite He. unfold c_error_at. apply N.leb_le in Hpos. rewrite Hpos. eexists. reflexivity.
Qed.

(* an unknown command {foo $x}: the parser reads `foo` as a print of the global foo; the token that
   follows the expression and is neither `}` nor `|` is the one reported *)
Theorem print_trailing_token_reported inlen pe lf f pos e dirs s tok s1 :
  c_next s = COk tok s1 -> tis tok pit_RightDelim = false -> tis tok pit_Pipe = false -> t_pos tok <= inlen ->
  exists cls, cmd_print_loop inlen pe lf (S f) pos e dirs s = CErr tok cls s1.
Proof.
  intros Hn H1 H2 Hp. cbn [cmd_print_loop]. rewrite Hn. cbn [cbind]. rewrite H1, H2.
  destruct (unexpected_reports_its_token inlen node tok x_print s1 _ eq_refl) as [H _].
  exact (H Hp).
Qed.
