(* C17 at command level, {plural}: parsePlural of Model/Parser.v = parseSwitch with the closing
   item "/plural" (the loop rules of Proofs/CmdRoundtripSwitch.v) + the conversion of the switch
   cases (single integer values, {default} required).  The tag is accepted only inside a {msg}. *)
From Soy Require Import Model.Bytes Model.Outcome Model.Num Model.Ast Model.Token Model.RawText Model.ExprParser Model.Parser Generated.Tables
  Spec.ExprSyntax Spec.CmdSyntax Proofs.ExprParserRules Proofs.CmdRoundtripBase Proofs.CmdRoundtripRules Proofs.CmdRoundtripSwitch
  Proofs.CmdRoundtripMsg.
From Coq Require Import Lia.
Open Scope N_scope.

(* the switch cases parseSwitch returns for the cases of a {plural} command *)
Definition sw_of_case (c : node) : node :=
  match c with
  | NMsgPluralCase cp cv b => NSwitchCase cp [NInt 0 cv] (NList (first_pos (blist_toks b)) b)
  | o => o
  end.
Definition sw_default (dflt : list node) : node := NSwitchCase 0 [] (NList (first_pos (blist_toks dflt)) dflt).

Section Plural.
Variable ns : bstr.
Variable al : list (bstr * bstr).
Variable inlen : N.
Variable lexq : bstr -> list tok.
Variable unq : bstr -> option bstr.
Variable efuel : list tok -> nat.

Notation PE g := (lift_expr inlen parse_expr g).
Notation IL g := (item_list inlen lexq unq parse_expr efuel g).
Notation BT g := (begin_tag inlen lexq unq parse_expr efuel (PE g) (IL g) g).
Notation Tag := (Tag ns al inlen lexq unq efuel).
Notation SwLoop := (SwLoop ns al inlen lexq unq efuel).

Lemma plural_cases_ok dflt : forall cases acc s, forallb is_pcase cases = true ->
  plural_cases inlen (map sw_of_case cases ++ [sw_default dflt]) acc None s = COk (acc ++ cases, Some dflt) s.
Proof.
  induction cases as [|c r IH]; intros acc s Hp.
  - cbn [map app plural_cases sw_default children_of]. rewrite app_nil_r. reflexivity.
  - cbn [forallb] in Hp. apply andb_true_iff in Hp. destruct Hp as [Hc Hr]. destruct c; try discriminate Hc.
    cbn [map app sw_of_case plural_cases children_of]. rewrite (IH _ s Hr), <- app_assoc. reflexivity.
Qed.

Lemma Tag_plural k l v rd l1 cs cases dflt rest :
  t_typ k = pit_Plural -> Parses 0 l v (rd :: l1) -> t_typ rd = pit_RightDelim ->
  SwLoop true (t_pos k) pit_PluralEnd v [] l1 (NSwitch (t_pos k) v cs) rest ->
  (forall s, plural_cases inlen cs [] None s = COk (cases, Some dflt) s) ->
  Tag true (k :: l) (NMsgPlural (t_pos k) [] v cases dflt) rest.
Proof.
  intros Hk HP Hrd HL Hpc. tag_start Hk s p sc p1 H1 Hm. apply runs_some. unfold parse_plural.
  rewrite c_inmsg_set_ps, (proj1 Hm). cbn [negb].
  run (switch_run HP Hrd HL) as p2 H2. cbv iota. rewrite Hpc. cbn [cbind fst snd]. apply runs_ret, H2.
Qed.
End Plural.
