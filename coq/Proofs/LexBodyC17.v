(* C17, scanner half for template bodies: the steps of the state machine around command tags that the
   expression layer (LexExpr/LexPrint) and the text layer (LexBodySeg/LexBodyCmd) do not have:
   a keyword open tag "{kw", a close tag "{/kw}", "/}" followed by more input, a double-quoted attribute
   string, and lexText on a stretch of text without comment opener up to the next tag or the end of the input. *)
From Soy Require Import Model.Bytes Model.Utf8 Model.Outcome Model.Token Generated.Tables Model.Lexer Spec.Text Spec.TextBody
  Proofs.Utf8Proofs Proofs.LexerPrim Proofs.LexerStates Proofs.LexTokens Proofs.LexStrings Proofs.LexExpr
  Proofs.LexBodyText Proofs.LexBodySeg Proofs.LexBodyCmd.
From Soy Require Spec.CmdSyntax.
From Coq Require Import ZifyBool Lia.
Open Scope Z_scope.

(* the command names that open a tag and continue inside it (lexIdent's table; "css" and "literal" have
   states of their own) *)
Definition lb17_open_kws : list (bstr * N) := Eval vm_compute in
  [(b "if", itemIf); (b "elseif", itemElseif); (b "else", itemElse); (b "for", itemFor); (b "ifempty", itemIfempty);
   (b "switch", itemSwitch); (b "case", itemCase); (b "default", itemDefault); (b "let", itemLet); (b "log", itemLog);
   (b "debugger", itemDebugger); (b "call", itemCall); (b "param", itemParam); (b "msg", itemMsg); (b "plural", itemPlural)].

(* the names after "{/" *)
Definition lb17_close_kws : list (bstr * N) := Eval vm_compute in
  [(b "if", itemIfEnd); (b "for", itemForEnd); (b "let", itemLetEnd); (b "log", itemLogEnd); (b "switch", itemSwitchEnd);
   (b "call", itemCallEnd); (b "param", itemParamEnd); (b "msg", itemMsgEnd); (b "plural", itemPluralEnd);
   (b "template", itemTemplateEnd)].

Lemma lb17_open_kws_table : forall name t, In (name, t) lb17_open_kws ->
  CmdSyntax.kw_text t = name /\
  exists c0 cs, name = c0 :: cs /\ (c0 < 128)%N /\ letter_b c0 = true /\
    forallb (fun c => (c <? 128)%N && alnum_b c) cs = true /\ word_type name = t /\ t <> itemLiteral /\ t <> itemCss.
Proof.
  intros name t Hin. unfold lb17_open_kws in Hin.
  repeat (destruct Hin as [E|Hin]; [injection E as <- <-; split; [vm_compute; reflexivity|]; eexists; eexists; split; [reflexivity|];
    split; [lia|]; split; [reflexivity|]; split; [reflexivity|]; split; [vm_compute; reflexivity|]; split; discriminate|]).
  contradiction.
Qed.

Lemma lb17_close_kws_table : forall cs t, In (cs, t) lb17_close_kws ->
  forallb (fun c => (c <? 128)%N && alnum_b c) cs = true /\ assoc_s (47%N :: cs) builtin_idents = Some t /\
  t <> itemLiteral /\ t <> itemCss /\ CmdSyntax.kw_text t = 47%N :: cs.
Proof.
  intros cs t Hin. unfold lb17_close_kws in Hin.
  repeat (destruct Hin as [E|Hin]; [injection E as <- <-; split; [reflexivity|]; split; [vm_compute; reflexivity|];
    split; [discriminate|]; split; [discriminate|vm_compute; reflexivity]|]).
  contradiction.
Qed.

(* a text without "/" is one piece *)
Lemma lb17_pieces_noslash : forall T pw cur, Forall (fun c => c <> 47%N) T -> pieces MText pw cur T = Some [rev cur ++ T].
Proof.
  induction T as [|c r IH]; intros pw cur Hns; cbn [pieces].
  - rewrite app_nil_r. reflexivity.
  - inversion Hns as [|? ? Hc Hr]; subst. assert (E : (c =? 47)%N = false) by lia. rewrite E.
    rewrite (IH (ws c) (c :: cur) Hr). cbn [rev]. rewrite <- app_assoc. reflexivity.
Qed.

(* a text that lexText reads as ONE piece whatever precedes it: no comment opener ("/*", or "//" at its start or
   behind white space) in it *)
Definition lb17_one_piece (T : bstr) : Prop := forall pw, pieces MText pw [] T = Some [T].
Lemma lb17_one_piece_noslash T : Forall (fun c => c <> 47%N) T -> lb17_one_piece T.
Proof. intros H pw. exact (lb17_pieces_noslash T pw [] H). Qed.
Lemma lb17_one_piece_nil : lb17_one_piece [].
Proof. intros pw. reflexivity. Qed.

Section Steps17.
Variable uni_letter uni_digit : Z -> bool.
Hypothesis letter_ascii : forall c, (c < 128)%N -> uni_letter (Z.of_N c) = ((65 <=? c) && (c <=? 90) || (97 <=? c) && (c <=? 122))%N.
Hypothesis digit_ascii : forall c, (c < 128)%N -> uni_digit (Z.of_N c) = digit_b c.
Hypothesis letter_eof : uni_letter (-1) = false.
Hypothesis digit_eof : uni_digit (-1) = false.
Variable inp : bstr.
Notation steps := (steps uni_letter uni_digit inp 0).
Notation span := (span inp).
Notation ilen := (Z.of_nat (length inp)).

(* the loops' budget covers what is left of the input *)
Lemma lb17_fuel l w cs s : span l w (cs ++ s) -> (length cs < loop_fuel ilen l)%nat /\ (length (cs ++ s) < loop_fuel ilen l)%nat.
Proof. intros Hs. pose proof (span_bounds inp _ _ _ Hs) as (_ & Hl). rewrite app_length in *. unfold loop_fuel. lia. Qed.

(* "{" kw: lexLeftDelim, lexBeginTag, lexInsideTag, lexIdent *)
Lemma lb17_open_word l c0 cs t s : (c0 < 128)%N -> letter_b c0 = true -> forallb (fun c => (c <? 128)%N && alnum_b c) cs = true ->
  word_type (c0 :: cs) = t -> t <> itemLiteral -> t <> itemCss -> span l [] (123%N :: c0 :: cs ++ s) -> stops s ->
  exists l' ld kw, steps 4 LLeftDelim l = Ok (LInsideTag, l') /\ span l' [] s /\ l_out l' = kw :: ld :: l_out l /\
    t_typ ld = itemLeftDelim /\ t_val ld = [123%N] /\ t_typ kw = t /\ t_val kw = c0 :: cs /\ l_last l' = kw /\ l_dd l' = false.
Proof.
  intros Hc0 Hl0 Hcs Hwt Hnl Hnc Hs Hst.
  assert (H0 : c0 <> 123%N /\ c0 <> 47%N /\ (c0 =? 92)%N = false) by (clear - Hl0; unfold letter_b in Hl0; lia).
  destruct H0 as (H123 & H47 & E).
  destruct (delim_begin uni_letter uni_digit letter_ascii digit_ascii letter_eof digit_eof inp l c0 (cs ++ s) Hs Hc0 H123 H47) as (l1 & p1 & Hst1 & Hs1 & Ho1 & Hla1 & Hdd1).
  rewrite E in Hst1.
  destruct (lex_word uni_letter uni_digit letter_ascii digit_ascii letter_eof digit_eof inp 0 l1 c0 cs s Hs1 Hc0 Hl0 Hcs Hst)
    as (l2 & Hst2 & Hs2 & (p2 & Ho2 & Hla2 & Hdd2)); [rewrite Hwt; exact Hnl|rewrite Hwt; exact Hnc|].
  rewrite Hwt in Ho2, Hla2.
  exists l2, {| t_typ := itemLeftDelim; t_pos := p1; t_val := [123%N] |}, {| t_typ := t; t_pos := p2; t_val := c0 :: cs |}.
  split. { change 4%nat with (2 + 2)%nat. rewrite (steps_app _ _ _ _ 2 2 _ _ _ _ Hst1). exact Hst2. }
  split; [exact Hs2|]. split; [rewrite Ho2, Ho1; reflexivity|]. cbn [t_typ t_val]. repeat split; try assumption. congruence.
Qed.

Lemma lb17_open_kw l name t s : In (name, t) lb17_open_kws -> span l [] ([123%N] ++ name ++ s) -> stops s ->
  exists l' ld kw, steps 4 LLeftDelim l = Ok (LInsideTag, l') /\ span l' [] s /\ l_out l' = kw :: ld :: l_out l /\
    t_typ ld = itemLeftDelim /\ t_val ld = [123%N] /\ t_typ kw = t /\ t_val kw = name /\ l_last l' = kw /\ l_dd l' = false.
Proof.
  intros Hin Hs Hst. destruct (lb17_open_kws_table name t Hin) as (_ & c0 & cs & -> & Hc0 & Hl0 & Hcs & Hwt & Hnl & Hnc).
  exact (lb17_open_word l c0 cs t s Hc0 Hl0 Hcs Hwt Hnl Hnc Hs Hst).
Qed.

(* "}" s is [close_brace]; "/}" s: lexInsideTag, lexRightDelimEnd, back in lexText *)
Lemma lb17_close_slash l s : span l [] (47%N :: 125%N :: s) -> l_dd l = false ->
  exists l' p, steps 2 LInsideTag l = Ok (LText, l') /\ span l' [] s /\
    l_out l' = {| t_typ := itemRightDelimEnd; t_pos := p; t_val := [47; 125]%N |} :: l_out l /\
    l_last l' = {| t_typ := itemRightDelimEnd; t_pos := p; t_val := [47; 125]%N |} /\ l_dd l' = false.
Proof.
  intros Hs Hdd.
  destruct (next_ascii inp l [] 47%N (125%N :: s) Hs eq_refl) as (Hn & Hs1).
  destruct (peek_span inp (adv l) _ (125%N :: s) Hs1 eq_refl) as (l2 & Hpk & Hs2 & Ho2 & Hla2 & Hd2).
  cbn [head_rune] in Hpk.
  assert (Hst1 : step uni_letter uni_digit inp ilen 0 LInsideTag l = Ok (LRightDelimEnd, l2)).
  { cbn [step]. unfold lex_inside_tag. rewrite Hn. cbn [bind].
    change (gen_isSpaceEOL (Z.of_N 47)) with false. cbv iota. change (Z.of_N 47 =? 47) with true. cbv iota.
    rewrite Hpk. cbn [bind]. change (Z.of_N 125 =? 125) with true. cbv iota. reflexivity. }
  destruct (next_ascii inp l2 _ 125%N s Hs2 eq_refl) as (Hn2 & Hs3).
  cbn [app] in Hs3.
  destruct (emit_span inp 0 itemRightDelimEnd (adv l2) [47; 125]%N s Hs3) as (He & Hs4).
  assert (Hst2 : step uni_letter uni_digit inp ilen 0 LRightDelimEnd l2 = Ok (LText, emitted 0 itemRightDelimEnd (adv l2) [47; 125]%N)).
  { cbn [step]. unfold lex_right_delim_end. rewrite Hn2. cbn [bind]. unfold double_close. cbn [adv l_dd].
    rewrite Hd2. cbn [adv l_dd]. rewrite Hdd. cbn [bind]. rewrite He. reflexivity. }
  exists (emitted 0 itemRightDelimEnd (adv l2) [47; 125]%N), (Z.to_N (0 + l_pos (adv l2))). split; [|split; [exact Hs4|]].
  - change 2%nat with (1 + 1)%nat. rewrite (steps_app _ _ _ _ 1 1 _ _ _ _ (steps_one _ _ _ _ _ _ _ _ Hst1)). apply steps_one. exact Hst2.
  - unfold emitted, mktok. cbn [l_out l_last l_dd adv]. rewrite Ho2, Hd2. cbn [adv l_out l_dd]. auto.
Qed.

(* "{/" kw "}" *)
Lemma lb17_delim_begin_slash l s : span l [] (123%N :: 47%N :: s) ->
  exists l' p, steps 2 LLeftDelim l = Ok (LIdent, l') /\ span l' [] (47%N :: s) /\
    l_out l' = {| t_typ := itemLeftDelim; t_pos := p; t_val := [123%N] |} :: l_out l /\
    l_last l' = {| t_typ := itemLeftDelim; t_pos := p; t_val := [123%N] |} /\ l_dd l' = false.
Proof.
  intros Hs.
  destruct (next_ascii inp l [] 123%N (47%N :: s) Hs eq_refl) as (Hn1 & Hs2).
  destruct (next_ascii inp (adv l) ([] ++ [123%N]) 47%N s Hs2 eq_refl) as (Hn2 & Hs3).
  pose proof (span_backup inp (adv l) ([] ++ [123%N]) 47%N s Hs2) as Hsb2.
  set (l3 := set_dd (backup (adv (adv l))) false).
  assert (Hs3' : span l3 [123%N] (47%N :: s)).
  { destruct Hsb2 as (A & B & C). unfold l3, LexTokens.span, set_dd. cbn [l_start l_pos]. auto. }
  destruct (emit_span inp 0 itemLeftDelim l3 [123%N] (47%N :: s) Hs3') as (He & Hs4).
  assert (Hst2 : step uni_letter uni_digit inp ilen 0 LLeftDelim l = Ok (LBeginTag, emitted 0 itemLeftDelim l3 [123%N])).
  { cbn [step]. unfold lex_left_delim. rewrite Hn1. cbn [bind]. rewrite Hn2. cbn [bind].
    change (Z.of_N 47 =? 123) with false. cbv iota. fold l3. rewrite He. reflexivity. }
  set (l4 := emitted 0 itemLeftDelim l3 [123%N]) in *.
  destruct (next_ascii inp l4 [] 47%N s Hs4 eq_refl) as (Hn4 & Hs5).
  pose proof (span_backup inp l4 [] 47%N s Hs4) as Hsb4.
  assert (Hst3 : step uni_letter uni_digit inp ilen 0 LBeginTag l4 = Ok (LIdent, backup (adv l4))).
  { cbn [step]. unfold lex_begin_tag, peek. rewrite Hn4. cbn [bind]. reflexivity. }
  exists (backup (adv l4)), (Z.to_N (0 + l_pos l3)). split; [|split; [exact Hsb4|]].
  - change 2%nat with (1 + 1)%nat. rewrite (steps_app _ _ _ _ 1 1 _ _ _ _ (steps_one _ _ _ _ _ _ _ _ Hst2)). apply steps_one. exact Hst3.
  - unfold backup, adv, set_pos, l4, emitted, mktok, l3, set_dd. cbn [l_out l_last l_dd]. auto.
Qed.

(* "/name" in state lexIdent *)
Lemma lb17_ident_slash l cs s t : span l [] (47%N :: cs ++ s) -> forallb (fun c => (c <? 128)%N && alnum_b c) cs = true -> stops s ->
  assoc_s (47%N :: cs) builtin_idents = Some t -> t <> itemLiteral -> t <> itemCss ->
  exists l', steps 1 LIdent l = Ok (LInsideTag, l') /\ span l' [] s /\ sent t (47%N :: cs) l l'.
Proof.
  intros Hs Hcs Hst Ht Hnl Hnc.
  destruct (next_ascii inp l [] 47%N (cs ++ s) Hs eq_refl) as (Hn & Hs1).
  destruct (alnum_loop_run uni_letter uni_digit letter_ascii digit_ascii letter_eof digit_eof inp cs (adv l) ([] ++ [47%N]) s
              (loop_fuel ilen (adv l)) Hs1 Hcs Hst) as (l3 & Hloop & Hs3 & Ho3 & Hla3 & Hd3).
  { exact (proj1 (lb17_fuel _ _ _ _ Hs1)). }
  cbn [app] in Hs3.
  destruct (emit_span inp 0 t (backup l3) (47%N :: cs) s Hs3) as (He & Hs4).
  exists (emitted 0 t (backup l3) (47%N :: cs)). split; [|split; [exact Hs4|]].
  - apply steps_one. cbn [step]. unfold lex_ident. rewrite Hn. cbn [bind].
    change (Z.of_N 47 =? 46) with false. change (Z.of_N 47 =? 36) with false. change (Z.of_N 47 =? 47) with true.
    cbv iota. cbn [bind]. rewrite Hloop. cbn [bind].
    rewrite (slice_span inp (backup l3) (47%N :: cs) s Hs3). cbn [bind]. rewrite Ht, He. cbn [bind].
    destruct (N.eqb_spec t itemLiteral); [congruence|]. destruct (N.eqb_spec t itemCss); [congruence|]. reflexivity.
  - apply sent_emitted; unfold backup, set_pos; cbn [l_out l_last l_dd]; [rewrite Ho3|rewrite Hla3|rewrite Hd3]; reflexivity.
Qed.

(* the whole close tag, from lexLeftDelim to the lexText behind it *)
Lemma lb17_close_cmd l cs t s : In (cs, t) lb17_close_kws -> span l [] ([123; 47]%N ++ cs ++ [125%N] ++ s) ->
  exists l' ld kw rd, steps 5 LLeftDelim l = Ok (LText, l') /\ span l' [] s /\ l_out l' = rd :: kw :: ld :: l_out l /\
    t_typ ld = itemLeftDelim /\ t_val ld = [123%N] /\ t_typ kw = t /\ t_val kw = 47%N :: cs /\
    t_typ rd = itemRightDelim /\ t_val rd = [125%N] /\ l_last l' = rd /\ l_dd l' = false.
Proof.
  intros Hin Hs. destruct (lb17_close_kws_table cs t Hin) as (Hcs & Hb & Hnl & Hnc & _).
  assert (Hs' : span l [] (123%N :: 47%N :: cs ++ 125%N :: s)) by exact Hs.
  destruct (lb17_delim_begin_slash l (cs ++ 125%N :: s) Hs') as (l1 & p1 & Hst1 & Hs1 & Ho1 & Hla1 & Hdd1).
  destruct (lb17_ident_slash l1 cs (125%N :: s) t Hs1 Hcs (conj eq_refl eq_refl) Hb Hnl Hnc) as (l2 & Hst2 & Hs2 & (p2 & Ho2 & Hla2 & Hdd2)).
  destruct (close_brace uni_letter uni_digit letter_eof digit_eof inp l2 s Hs2 ltac:(congruence)) as (l3 & p3 & Hst3 & Hs3 & Ho3 & Hla3 & Hdd3).
  exists l3. eexists; eexists; eexists. split.
  { change 5%nat with (2 + (1 + 2))%nat. rewrite (steps_app _ _ _ _ 2 _ _ _ _ _ Hst1), (steps_app _ _ _ _ 1 _ _ _ _ _ Hst2). exact Hst3. }
  split; [exact Hs3|]. split; [rewrite Ho3, Ho2, Ho1; reflexivity|]. cbn [t_typ t_val]. repeat split; assumption.
Qed.

(* a double-quoted attribute value inside a tag: one string item, quotes included *)
Lemma lb17_lexes_dqstring rs : Forall valid_scalar rs -> str_body_ok 34 rs = true ->
  lexes uni_letter uni_digit inp 0 anyty anys (34%N :: string_of_runes rs ++ [34%N])
        [(itemString, 34%N :: string_of_runes rs ++ [34%N])] (eq itemString).
Proof.
  intros Hv Hok. apply (lexes_tok uni_letter uni_digit letter_ascii digit_ascii letter_eof digit_eof).
  intros l s Hs _ _. cbn [app] in Hs. rewrite <- app_assoc in Hs. cbn [app] in Hs.
  destruct (lex_string_tok uni_letter uni_digit inp 0 l 34%N rs s ltac:(right; reflexivity) Hs Hv Hok) as (l' & A & B & C).
  exists 2%nat, l'. auto.
Qed.

(* lexText on a stretch without comment opener (possibly empty), up to the next tag or the end *)
Lemma lb17_text_run l T tl : span l [] (T ++ tl) -> plain T -> lb17_one_piece T -> tag_or_end tl ->
  exists st' l', steps 1 LText l = Ok (st', l') /\ plain_result inp l T tl st' l'.
Proof.
  intros Hs Hpl Hns Htl.
  destruct (text_plain_run inp (length T) T (le_n _) [] l 0 (loop_fuel ilen l) T tl Hs (proj2 (lb17_fuel _ _ _ _ Hs)) Hpl Htl
              (fun _ => eq_refl) ltac:(intros E; congruence) ltac:(cbn [rev]; apply Hns))
    as (st' & l' & Hrun & _ & Hres).
  exists st', l'. split; [apply steps_one; exact Hrun|exact Hres].
Qed.

(* lexText directly in front of a tag: nothing is sent *)
Lemma lb17_text_tag l tl : span l [] (123%N :: tl) ->
  exists l', steps 1 LText l = Ok (LLeftDelim, l') /\ span l' [] (123%N :: tl) /\ l_out l' = l_out l /\
    l_last l' = l_last l /\ l_dd l' = l_dd l.
Proof.
  intros Hs.
  destruct (lb17_text_run l [] (123%N :: tl) Hs ltac:(constructor) lb17_one_piece_nil ltac:(right; eexists; reflexivity))
    as (st' & l' & Hrun & (txt & Htx & Hdd & Hres)).
  unfold is_text_of in Htx. cbn [droppable] in Htx. subst txt.
  destruct Hres as [(A & _)|(_ & -> & Ho & Hs' & Hla)]; [discriminate A|].
  exists l'. split; [exact Hrun|]. split; [exact Hs'|]. split; [exact Ho|]. split; [apply Hla; reflexivity|exact Hdd].
Qed.

(* "css": "{css" sp txt "}": lexIdent sends the keyword and hands over to lexCss, which skips one
   byte and sends everything up to the "}" as one text item, then the "}" *)
Lemma lb17_css_loop_run : forall txt l w s fuel, span l w (txt ++ 125%N :: s) ->
  Forall (fun c => (c < 128)%N /\ c <> 125%N) txt -> (length (txt ++ 125%N :: s) < fuel)%nat ->
  exists l', css_loop inp ilen 0 fuel l = Ok (inr (adv l')) /\ span l' (w ++ txt) (125%N :: s) /\
    l_out l' = l_out l /\ l_last l' = l_last l /\ l_dd l' = l_dd l.
Proof.
  induction txt as [|c txt IH]; intros l w s fuel Hs Hall Hf; (destruct fuel as [|f]; [cbn [length] in Hf; lia|]); cbn [css_loop].
  - cbn [app] in Hs. destruct (next_ascii inp l w 125%N s Hs eq_refl) as (Hn & _). rewrite Hn. cbn [bind].
    change (Z.of_N 125 =? eof) with false. change (Z.of_N 125 =? 125) with true. cbv iota.
    exists l. rewrite app_nil_r. auto.
  - inversion Hall as [|? ? [Hc1 Hc2] Hall']; subst. cbn [app] in Hs, Hf.
    destruct (next_ascii inp l w c (txt ++ 125%N :: s) Hs Hc1) as (Hn & Hs1). rewrite Hn. cbn [bind].
    assert (E1 : (Z.of_N c =? eof) = false) by (unfold eof; lia). assert (E2 : (Z.of_N c =? 125) = false) by lia. rewrite E1, E2.
    destruct (IH (adv l) (w ++ [c]) s f Hs1 Hall' ltac:(cbn [length] in Hf; lia)) as (l' & Hrun & Hs' & Ho & Hla & Hd).
    exists l'. split; [exact Hrun|]. split; [rewrite <- app_assoc in Hs'; exact Hs'|]. unfold adv in Ho, Hla, Hd. cbn [l_out l_last l_dd] in Ho, Hla, Hd. auto.
Qed.

Lemma lb17_open_css l txt s : span l [] ([123; 99; 115; 115]%N ++ 32%N :: txt ++ 125%N :: s) ->
  Forall (fun c => (c < 128)%N /\ c <> 125%N) txt ->
  exists l' ld kw tx rd, steps 5 LLeftDelim l = Ok (LText, l') /\ span l' [] s /\ l_out l' = rd :: tx :: kw :: ld :: l_out l /\
    t_typ ld = itemLeftDelim /\ t_val ld = [123%N] /\ t_typ kw = itemCss /\ t_val kw = [99; 115; 115]%N /\
    t_typ tx = itemText /\ t_val tx = txt /\ t_typ rd = itemRightDelim /\ t_val rd = [125%N] /\ l_last l' = rd /\ l_dd l' = false.
Proof.
  intros Hs Hall.
  assert (Hs' : span l [] (123%N :: 99%N :: [115; 115]%N ++ 32%N :: txt ++ 125%N :: s)) by exact Hs.
  destruct (delim_begin uni_letter uni_digit letter_ascii digit_ascii letter_eof digit_eof inp l 99%N _ Hs' eq_refl ltac:(discriminate) ltac:(discriminate))
    as (l1 & p1 & Hst1 & Hs1 & Ho1 & Hla1 & Hdd1).
  change (99 =? 92)%N with false in Hst1. cbv iota in Hst1.
  (* lexInsideTag steps back, lexIdent scans "css" *)
  destruct (next_ascii inp l1 [] 99%N _ Hs1 eq_refl) as (Hn & _).
  pose proof (span_backup inp l1 [] 99%N _ Hs1) as Hsb.
  set (lb := backup (adv l1)) in *.
  assert (H1 : step uni_letter uni_digit inp ilen 0 LInsideTag l1 = Ok (LIdent, lb)).
  { cbn [step]. unfold lex_inside_tag. rewrite Hn. cbn [bind]. eval_tests. reflexivity. }
  destruct (next_ascii inp lb [] 99%N _ Hsb eq_refl) as (Hn2 & Hs2).
  destruct (alnum_loop_run uni_letter uni_digit letter_ascii digit_ascii letter_eof digit_eof inp [115; 115]%N (adv lb) ([] ++ [99%N])
              (32%N :: txt ++ 125%N :: s) (loop_fuel ilen (adv lb)) Hs2 eq_refl (conj eq_refl eq_refl))
    as (l3 & Hloop & Hs3 & Ho3 & Hla3 & Hd3).
  { exact (proj1 (lb17_fuel _ _ _ _ Hs2)). }
  cbn [app] in Hs3.
  destruct (emit_span inp 0 itemCss (backup l3) [99; 115; 115]%N _ Hs3) as (He & Hs4).
  set (l4 := emitted 0 itemCss (backup l3) [99; 115; 115]%N) in *.
  assert (H2 : step uni_letter uni_digit inp ilen 0 LIdent lb = Ok (LCss, l4)).
  { cbn [step]. unfold lex_ident. rewrite Hn2. cbn [bind]. eval_tests. rewrite Hloop. cbn [bind].
    rewrite (slice_span inp (backup l3) [99; 115; 115]%N _ Hs3). cbn [bind].
    change (assoc_s [99; 115; 115]%N builtin_idents) with (Some itemCss). cbv iota. fold l4 in He. rewrite He. cbn [bind]. reflexivity. }
  (* lexCss *)
  destruct (next_ascii inp l4 [] 32%N _ Hs4 eq_refl) as (Hn4 & Hs5).
  pose proof (span_ignore inp (adv l4) _ _ Hs5) as Hs6.
  destruct (lb17_css_loop_run txt (ignore (adv l4)) [] s (loop_fuel ilen (ignore (adv l4))) Hs6 Hall) as (l7 & Hcl & Hs7 & Ho7 & Hla7 & Hd7).
  { exact (proj2 (lb17_fuel _ _ _ _ Hs6)). }
  cbn [app] in Hs7.
  pose proof (span_backup inp l7 txt 125%N s Hs7) as Hs8.
  destruct (emit_span inp 0 itemText (backup (adv l7)) txt _ Hs8) as (He8 & Hs9).
  set (l9 := emitted 0 itemText (backup (adv l7)) txt) in *.
  destruct (next_ascii inp l9 [] 125%N s Hs9 eq_refl) as (Hn9 & Hs10). cbn [app] in Hs10.
  destruct (emit_span inp 0 itemRightDelim (adv l9) [125%N] s Hs10) as (He10 & Hs11).
  assert (Hdd9 : l_dd (adv l9) = false).
  { unfold l9, emitted, adv, backup, set_pos. cbn [l_dd]. rewrite Hd7. unfold ignore, set_start, adv, l4, emitted, backup, set_pos. cbn [l_dd].
    rewrite Hd3. unfold adv, lb, backup, set_pos. cbn [l_dd]. exact Hdd1. }
  assert (H3 : step uni_letter uni_digit inp ilen 0 LCss l4 = Ok (LText, emitted 0 itemRightDelim (adv l9) [125%N])).
  { cbn [step]. unfold lex_css. rewrite Hn4. cbn [bind]. rewrite Hcl. cbn [bind]. fold l9 in He8. rewrite He8. cbn [bind].
    rewrite Hn9. cbn [bind]. unfold double_close. rewrite Hdd9. cbn [bind]. unfold emit_to. rewrite He10. reflexivity. }
  exists (emitted 0 itemRightDelim (adv l9) [125%N]).
  exists {| t_typ := itemLeftDelim; t_pos := p1; t_val := [123%N] |}, (mktok 0 itemCss (backup l3) [99; 115; 115]%N),
         (mktok 0 itemText (backup (adv l7)) txt), (mktok 0 itemRightDelim (adv l9) [125%N]).
  split.
  { change 5%nat with (2 + (1 + (1 + 1)))%nat. rewrite (steps_app _ _ _ _ 2 _ _ _ _ _ Hst1).
    rewrite (steps_app _ _ _ _ 1 _ _ _ _ _ (steps_one _ _ _ _ _ _ _ _ H1)), (steps_app _ _ _ _ 1 _ _ _ _ _ (steps_one _ _ _ _ _ _ _ _ H2)).
    apply steps_one. exact H3. }
  split; [exact Hs11|]. split.
  { assert (E9 : l_out l9 = mktok 0 itemText (backup (adv l7)) txt :: l_out l7) by reflexivity.
    assert (E4 : l_out l4 = mktok 0 itemCss (backup l3) [99; 115; 115]%N :: l_out l3) by reflexivity.
    change (l_out (ignore (adv l4))) with (l_out l4) in Ho7. change (l_out (adv lb)) with (l_out l1) in Ho3.
    change (l_out (emitted 0 itemRightDelim (adv l9) [125%N])) with (mktok 0 itemRightDelim (adv l9) [125%N] :: l_out l9).
    rewrite E9, Ho7, E4, Ho3, Ho1. reflexivity. }
  cbn [t_typ t_val mktok]. repeat split. exact Hdd9.
Qed.

(* "=" between an attribute name and its value *)
Lemma lb17_lex_equals l c s : span l [] (61%N :: c :: s) -> (c < 128)%N -> c <> 61%N ->
  exists l', steps 1 LInsideTag l = Ok (LInsideTag, l') /\ span l' [] (c :: s) /\ sent itemEquals [61%N] l l'.
Proof.
  intros Hs Hc Hne.
  destruct (next_ascii inp l [] 61%N (c :: s) Hs eq_refl) as (Hn & Hs1).
  destruct (peek_span inp (adv l) _ (c :: s) Hs1 Hc) as (l2 & Hpk & Hs2 & Ho2 & Hla2 & Hd2).
  cbn [head_rune] in Hpk. cbn [app] in Hs2.
  destruct (emit_span inp 0 itemEquals l2 [61%N] (c :: s) Hs2) as (He & Hs3).
  exists (emitted 0 itemEquals l2 [61%N]). split; [|split; [exact Hs3|]].
  - apply steps_one. cbn [step]. unfold lex_inside_tag. rewrite Hn. cbn [bind].
    change (gen_isSpaceEOL (Z.of_N 61)) with false. cbv iota. change (Z.of_N 61 =? 47) with false. cbv iota. cbn [bind].
    change ((Z.of_N 61 =? 36) || (Z.of_N 61 =? 46)) with false. cbv iota.
    change (Z.of_N 61 =? 91) with false. change (Z.of_N 61 =? 93) with false. change (Z.of_N 61 =? 63) with false.
    change (Z.of_N 61 =? 45) with false. change (Z.of_N 61 =? 125) with false. cbv iota.
    change ((48 <=? Z.of_N 61) && (Z.of_N 61 <=? 57)) with false. cbv iota.
    change (existsb (Z.eqb (Z.of_N 61)) inside_tag_single_syms) with false. cbv iota.
    change (existsb (Z.eqb (Z.of_N 61)) inside_tag_cmp_syms) with false. cbv iota.
    change (Z.of_N 61 =? 61) with true. cbv iota. rewrite Hpk. cbn [bind].
    assert (E : (Z.of_N c =? 61) = false) by lia. rewrite E. cbv iota.
    change ((Z.of_N 61 =? 34) || (Z.of_N 61 =? 39)) with false. cbv iota.
    unfold emit_to. rewrite He. reflexivity.
  - apply sent_emitted; [rewrite Ho2|rewrite Hla2|rewrite Hd2]; reflexivity.
Qed.

End Steps17.
