(* C20: data/convert.go's model (Model/Convert.v) against the relational Spec (Spec/ConvertSpec.v). *)
From Coq Require Import Lia ZifyBool.
From Soy Require Import Model.Bytes Model.Num Model.Outcome Model.Utf8 Model.Values Model.Convert
  Spec.ConvertSpec Proofs.ValueProofs Proofs.Utf8Proofs.
From Soy Require Export Proofs.BytesBase.
Open Scope N_scope.

Definition children (g : goval) : list goval :=
  match g with
  | GSlice (Some l) => l
  | GMap (Some m) => map snd m
  | GStruct fs => map (fun fd => snd (snd (snd fd))) fs
  | GPtr (Some g') | GIface (Some g') => [g']
  | GMarshal _ u => [u]
  | _ => []
  end.

Section GovalInd.
  Variable P : goval -> Prop.
  Hypothesis step : forall g, Forall P (children g) -> P g.

  Fixpoint goval_ind' (g : goval) : P g :=
    step g
      (match g return Forall P (children g) with
       | GSlice (Some l) =>
           (fix go (l : list goval) : Forall P l :=
              match l with [] => Forall_nil P | x :: r => Forall_cons x (goval_ind' x) (go r) end) l
       | GMap (Some m) =>
           (fix go (m : list (bstr * goval)) : Forall P (map snd m) :=
              match m with [] => Forall_nil P | kx :: r => Forall_cons (snd kx) (goval_ind' (snd kx)) (go r) end) m
       | GStruct fs =>
           (fix go (fs : list (bstr * (bool * (bool * goval)))) : Forall P (map (fun fd => snd (snd (snd fd))) fs) :=
              match fs with
              | [] => Forall_nil P
              | fd :: r => Forall_cons (snd (snd (snd fd))) (goval_ind' (snd (snd (snd fd)))) (go r)
              end) fs
       | GPtr (Some g') => Forall_cons g' (goval_ind' g') (Forall_nil P)
       | GIface (Some g') => Forall_cons g' (goval_ind' g') (Forall_nil P)
       | GMarshal _ u => Forall_cons u (goval_ind' u) (Forall_nil P)
       | _ => Forall_nil P
       end).
End GovalInd.

Inductive threaded {A B} (f : A -> N -> outcome (option B * N)) : list A -> N -> list B -> N -> Prop :=
| th_nil n : threaded f [] n [] n
| th_cons x r n o n1 ys n2 :
    f x n = Ok (o, n1) -> threaded f r n1 ys n2 ->
    threaded f (x :: r) n (match o with Some y => y :: ys | None => ys end) n2.

Lemma thread_threaded {A B} (f : A -> N -> outcome (option B * N)) l : forall n ys n',
  thread f l n = Ok (ys, n') -> threaded f l n ys n'.
Proof.
  induction l as [|x r IH]; intros n ys n' H; cbn [thread] in H.
  - injection H as <- <-. constructor.
  - apply bind_ok in H as ([o n1] & Hf & H). apply bind_ok in H as ([zs n2] & Hr & H).
    injection H as <- <-. econstructor; [exact Hf | apply IH; exact Hr].
Qed.

Lemma assoc_s_map_set_same m k (v : value) : assoc_s k (map_set m k v) = Some v.
Proof.
  induction m as [|[k1 v1] r IH]; cbn [map_set assoc_s].
  - rewrite bstr_eqb_refl. reflexivity.
  - destruct (bstr_eqb k k1) eqn:E; cbn [assoc_s].
    + rewrite bstr_eqb_refl. reflexivity.
    + destruct (bstr_ltb k k1); cbn [assoc_s]; [rewrite bstr_eqb_refl; reflexivity | rewrite E; exact IH].
Qed.

Lemma assoc_s_map_set_other m k q (v : value) : bstr_eqb q k = false -> assoc_s q (map_set m k v) = assoc_s q m.
Proof.
  intros Hq. induction m as [|[k1 v1] r IH]; cbn [map_set assoc_s].
  - rewrite Hq. reflexivity.
  - destruct (bstr_eqb_spec k k1) as [->|Hne]; cbn [assoc_s].
    + rewrite Hq. reflexivity.
    + destruct (bstr_ltb k k1); cbn [assoc_s]; [rewrite Hq; reflexivity|].
      destruct (bstr_eqb q k1); [reflexivity | exact IH].
Qed.

Lemma assoc_s_map_set m k q (v : value) :
  assoc_s q (map_set m k v) = if bstr_eqb q k then Some v else assoc_s q m.
Proof.
  destruct (bstr_eqb q k) eqn:E.
  - destruct (bstr_eqb_spec q k) as [->|]; [apply assoc_s_map_set_same | discriminate].
  - apply assoc_s_map_set_other; exact E.
Qed.

Lemma assoc_s_fold_map_set (kvs : list (bstr * value)) : forall m0 k,
  assoc_s k (fold_left (fun m kv => map_set m (fst kv) (snd kv)) kvs m0) =
  match last_binding k kvs with Some v => Some v | None => assoc_s k m0 end.
Proof.
  induction kvs as [|[k1 v1] r IH]; intros m0 k; cbn [fold_left last_binding fst snd]; [reflexivity|].
  rewrite IH. destruct (last_binding k r); [reflexivity|].
  destruct (bstr_eqb_spec k k1) as [->|Hne].
  - apply assoc_s_map_set_same.
  - apply assoc_s_map_set_other. destruct (bstr_eqb_spec k k1); congruence.
Qed.

Lemma assoc_s_build_map kvs k : assoc_s k (build_map kvs) = last_binding k kvs.
Proof. unfold build_map. rewrite assoc_s_fold_map_set. destruct (last_binding k kvs); reflexivity. Qed.

(* corresponding entry lists have corresponding last bindings *)
Lemma last_binding_rel {A B} (R : A -> B -> Prop) (l : list (bstr * A)) (l' : list (bstr * B)) k :
  Forall2 (fun a c => fst a = fst c /\ R (snd a) (snd c)) l l' ->
  match last_binding k l with
  | Some x => exists y, last_binding k l' = Some y /\ R x y
  | None => last_binding k l' = None
  end.
Proof.
  induction 1 as [|[k1 x] [k2 y] l l' [Hk HR] _ IH]; cbn [last_binding]; [reflexivity|].
  cbn [fst snd] in Hk, HR. subst k2.
  destruct (last_binding k l) as [x0|].
  - destruct IH as (y0 & -> & HR0). eauto.
  - rewrite IH. destruct (bstr_eqb k k1); eauto.
Qed.

Lemma build_map_rel {A} (R : A -> value -> Prop) (m : list (bstr * A)) kvs :
  Forall2 (fun a c => fst a = fst c /\ R (snd a) (snd c)) m kvs ->
  (forall k g, last_binding k m = Some g -> exists v, assoc_s k (build_map kvs) = Some v /\ R g v) /\
  (forall k, last_binding k m = None -> assoc_s k (build_map kvs) = None).
Proof.
  intro HF. split; intros k; pose proof (last_binding_rel R m kvs k HF) as HL; rewrite assoc_s_build_map.
  - intros g Hk. rewrite Hk in HL. exact HL.
  - intros Hk. rewrite Hk in HL. exact HL.
Qed.

Lemma to_lower_spec_lower hi r : to_lower hi r = spec_lower hi r.
Proof.
  unfold to_lower, spec_lower, ascii_to_lower.
  destruct (N.ltb_spec r 128), (N.ltb_spec r 65), (N.leb_spec r 90), (N.leb_spec 65 r); cbn; try reflexivity; lia.
Qed.

Lemma field_key_spec_key lc hi name : field_key lc hi name = spec_key lc hi name.
Proof.
  unfold field_key, spec_key, lower_camel_key, lowered_name. destruct lc; [|reflexivity].
  destruct (decode_rune name) as [r w]. cbn [fst snd]. rewrite to_lower_spec_lower, drop_skipn. reflexivity.
Qed.

Lemma strip2_value p : forall e q e', (0 <= e)%Z -> strip2 p e = (q, e') ->
  (e <= e')%Z /\ (Zpos q * 2 ^ e' = Zpos p * 2 ^ e)%Z.
Proof.
  induction p as [p IH|p IH|]; intros e q e' He H; cbn [strip2] in H.
  - injection H as <- <-. split; [lia | reflexivity].
  - apply IH in H; [|lia]. destruct H as [Hle Hv]. split; [lia|].
    rewrite Hv. replace (e + 1)%Z with (Z.succ e) by lia. rewrite Z.pow_succ_r by lia.
    change (Z.pos p~0) with (2 * Z.pos p)%Z. lia.
  - injection H as <- <-. split; [lia | reflexivity].
Qed.

(* float64(u) is within half a unit in the last place (2^10) of u, hence within relative error 2^-53 *)
Lemma float_of_big_uint_near z : (two63 <= z)%Z ->
  exists m e, float_of_big_uint z = FFin m e /\ (0 <= e)%Z /\ (Z.abs (m * 2 ^ e - z) * two53 <= z)%Z.
Proof.
  intros Hz. unfold float_of_big_uint.
  pose proof (Z.div_mod z 2048 ltac:(lia)) as Hdm.
  pose proof (Z.mod_pos_bound z 2048 ltac:(lia)) as Hr.
  set (q := (z / 2048)%Z) in *. set (r := (z mod 2048)%Z) in *.
  assert (Hq : (two63 / 2048 <= q)%Z) by (unfold q; apply Z.div_le_mono; lia).
  change (two63 / 2048)%Z with 4503599627370496%Z in Hq.
  set (q' := (if r <? 1024 then q else if 1024 <? r then q + 1 else if Z.even q then q else q + 1)%Z).
  assert (Hq' : (0 < q' /\ Z.abs (q' * 2048 - z) <= 1024)%Z).
  { unfold q'. destruct (Z.ltb_spec r 1024); [lia|]. destruct (Z.ltb_spec 1024 r); [lia|].
    destruct (Z.even q); lia. }
  destruct Hq' as [Hpos Hnear]. destruct q' as [|p|p]; try lia.
  destruct (strip2 p 11) as [m e] eqn:Hs.
  apply strip2_value in Hs; [|lia]. destruct Hs as [He Hv].
  exists (Zpos m), e. split; [reflexivity|]. split; [lia|].
  rewrite Hv. change (2 ^ 11)%Z with 2048%Z. unfold two53, two63 in *. lia.
Qed.

Section Shape.
  Variable lc : bool.
  Variable hi : N -> N.

  Notation conv := (conv lc hi).
  Notation converts := (converts lc hi).

  Definition shape_at (g : goval) : Prop :=
    forall ctx n v n', conv ctx g n = Ok (v, n') -> converts g v.

  Theorem conv_shape : forall g, shape_at g.
  Proof.
    apply goval_ind'. intros g IH ctx n v n' H.
    destruct g as [|x|w z|w z|w f|s|s|[l|]|[m|]|cnt|fs|[g'|]|mar|[g'|]|mv u|ev|]; cbn [conv] in H.
    (* the scalar kinds and the nil values convert by the constructor of their kind *)
    all: try (injection H as <- <-; constructor; fail).
    - (* unsigned *)
      destruct (Z.ltb_spec z two63) as [Hlt|Hge].
      + injection H as <- <-. constructor. exact Hlt.
      + injection H as <- <-. destruct (float_of_big_uint_near z Hge) as (m & e & -> & He & Hn).
        constructor; assumption.
    - (* slice *)
      cbn [children] in IH.
      destruct (match l with [] => (zerobase_id, n) | _ :: _ => (n, n + 1) end) as [id n1].
      apply bind_ok in H as ([vs n2] & Ht & H). injection H as <- <-.
      constructor. apply thread_threaded in Ht.
      clear - IH Ht. induction Ht as [|x r k o k1 ys k2 Hf _ IHt]; [constructor|].
      inversion IH as [|? ? IHx IHr]; subst.
      apply bind_ok in Hf as ([v k'] & Hc & Hf). injection Hf as <- <-.
      constructor; [eapply IHx; eassumption | apply IHt; assumption].
    - (* map *)
      cbn [children] in IH.
      apply bind_ok in H as ([kvs n2] & Ht & H). injection H as <- <-.
      apply thread_threaded in Ht.
      assert (HF : Forall2 (fun a c => fst a = fst c /\ converts (snd a) (snd c)) m kvs).
      { clear - IH Ht. induction Ht as [|kx r k o k1 ys k2 Hf _ IHt]; [constructor|].
        cbn [map] in IH. inversion IH as [|? ? IHx IHr]; subst.
        apply bind_ok in Hf as ([v k'] & Hc & Hf). injection Hf as <- <-.
        constructor; [split; [reflexivity | eapply IHx; eassumption] | apply IHt; assumption]. }
      constructor; apply (build_map_rel converts _ _ HF).
    - destruct (N.eqb_spec cnt 0) as [->|]; [|discriminate]. injection H as <- <-. constructor.
    - (* struct *)
      cbn [children] in IH.
      apply bind_ok in H as ([kvs n2] & Ht & H). injection H as <- <-.
      apply thread_threaded in Ht.
      assert (HF : Forall2 (fun a c => fst a = fst c /\ converts (snd a) (snd c)) (struct_entries lc hi fs) kvs).
      { clear - IH Ht. unfold struct_entries.
        induction Ht as [|fd r k o k1 ys k2 Hf _ IHt]; [constructor|].
        cbn [map] in IH. inversion IH as [|? ? IHx IHr]; subst.
        cbn [filter]. destruct (fst (snd fd)).
        - apply bind_ok in Hf as ([v k'] & Hc & Hf). injection Hf as <- <-. cbn [map].
          constructor; [split; [cbn [fst]; symmetry; apply field_key_spec_key | eapply IHx; eassumption] | apply IHt; assumption].
        - injection Hf as <- <-. apply IHt; assumption. }
      constructor; apply (build_map_rel converts _ _ HF).
    - cbn [children] in IH. inversion IH as [|? ? IHx _]; subst. constructor. eapply IHx; eassumption.
    - (* typed nil pointer *)
      destruct mar, ctx; try discriminate; injection H as <- <-; constructor.
    - cbn [children] in IH. inversion IH as [|? ? IHx _]; subst. constructor. eapply IHx; eassumption.
    - (* Marshaler *)
      cbn [children] in IH. inversion IH as [|? ? IHx _]; subst.
      destruct ctx.
      + injection H as <- <-. apply cv_marshal.
      + injection H as <- <-. apply cv_marshal.
      + apply cv_marshal_plain. eapply IHx; eassumption.
    - (* data.Value *)
      destruct ctx; [injection H as <- <-; apply cv_value | discriminate |].
      (* the value itself, or its plain image *)
      destruct ev as [| |x|z|f|s|id [|]|id m]; injection H as <- <-;
        first [apply cv_value | apply cv_value_plain; constructor].
    - discriminate.
  Qed.
End Shape.

Theorem convert_shape hi lc g v : convert_with hi lc g = Ok v -> converts lc hi g v.
Proof.
  unfold convert_with. intros H. apply bind_ok in H as ([v0 n'] & Hc & H). injection H as <-.
  eapply conv_shape; eassumption.
Qed.

(* an unsigned integer above MaxInt64: the Float nearest to it, never an Int *)
Theorem convert_uint_big hi lc w z : (two63 <= z)%Z ->
  exists m e, convert_with hi lc (GUint w z) = Ok (VFloat (FFin m e)) /\
              (0 <= e)%Z /\ (Z.abs (m * 2 ^ e - z) * two53 <= z)%Z.
Proof.
  intros Hz. destruct (float_of_big_uint_near z Hz) as (m & e & Hf & He & Hn).
  exists m, e. split; [|split; assumption].
  unfold convert_with. cbn [conv]. destruct (Z.ltb_spec z two63); [lia|]. rewrite Hf. reflexivity.
Qed.

Theorem convert_uint_small hi lc w z : (z < two63)%Z -> convert_with hi lc (GUint w z) = Ok (VInt z).
Proof.
  intros Hz. unfold convert_with. cbn [conv]. destruct (Z.ltb_spec z two63); [reflexivity | lia].
Qed.

Fixpoint ptrs (k : nat) (g : goval) : goval :=
  match k with O => g | S k' => GPtr (Some (ptrs k' g)) end.

Lemma conv_ptrs_deep lc hi k g n : conv lc hi CDeep (ptrs k g) n = conv lc hi CDeep g n.
Proof. induction k as [|k IH]; [reflexivity | exact IH]. Qed.

Lemma conv_ptrs_ptr lc hi k g n : conv lc hi CPtr (ptrs (S k) g) n = conv lc hi CDeep g n.
Proof. cbn [ptrs conv]. apply conv_ptrs_deep. Qed.

(* two or more pointers: NewWith's drilling loop; what is found there converts by its kind *)
Theorem conv_ptr_chain lc hi k g n : conv lc hi CSlot (ptrs (S (S k)) g) n = conv lc hi CDeep g n.
Proof. cbn [ptrs conv]. apply conv_ptrs_deep. Qed.

(* a Marshaler (value receiver): MarshalValue at the argument itself and one pointer below ... *)
Theorem conv_marshal_direct lc hi v u n :
  conv lc hi CSlot (GMarshal v u) n = Ok (v, n) /\ conv lc hi CSlot (GPtr (Some (GMarshal v u))) n = Ok (v, n).
Proof. split; reflexivity. Qed.

(* ... and behind any longer chain the plain value it is *)
Theorem conv_marshal_deep lc hi k v u n :
  conv lc hi CSlot (ptrs (S (S k)) (GMarshal v u)) n = conv lc hi CDeep u n.
Proof. rewrite conv_ptr_chain. reflexivity. Qed.

(* an existing data.Value behind two or more pointers: its plain image, always *)
Theorem conv_value_deep lc hi k v n :
  exists r n', conv lc hi CSlot (ptrs (S (S k)) (GValue v)) n = Ok (r, n') /\ plain_of v r.
Proof.
  rewrite conv_ptr_chain. cbn [conv].
  destruct v as [| |x|z|f|s|id l|id m]; try (eexists; eexists; split; [reflexivity | constructor]).
  destruct l; eexists; eexists; (split; [reflexivity | constructor]).
Qed.

(* a nil pointer at the end of any chain is null -- also the typed nil pointer to a value-receiver Marshaler
   (after REPAIR C20-nil-marshaler) -- except the typed nil pointer to a data.Value type passed directly
   (returned as it is) *)
Theorem conv_nil_chain lc hi k m n :
  conv lc hi CSlot (ptrs k (GPtr None)) n = Ok (VNull, n) /\
  conv lc hi CSlot (ptrs k (GNilPtrTo true)) n = Ok (VNull, n) /\
  conv lc hi CSlot (ptrs (S k) (GNilPtrTo m)) n = Ok (VNull, n) /\
  conv lc hi CSlot (GNilPtrTo false) n = OutOfModel.
Proof.
  repeat split.
  - destruct k as [|[|k]]; [reflexivity | reflexivity | rewrite conv_ptr_chain; reflexivity].
  - destruct k as [|[|k]]; [reflexivity | reflexivity | rewrite conv_ptr_chain; reflexivity].
  - destruct k as [|k]; [destruct m; reflexivity | rewrite conv_ptr_chain; destruct m; reflexivity].
Qed.

Lemma thread_oom {A B} (f : A -> N -> outcome (option B * N)) l : forall n,
  thread f l n = OutOfModel -> exists x k, In x l /\ f x k = OutOfModel.
Proof.
  induction l as [|x r IH]; intros n H; cbn [thread] in H; [discriminate|].
  destruct (f x n) as [[o n1]| | | | |] eqn:Hf; cbn [bind] in H; try discriminate.
  - destruct (thread f r n1) as [[ys n2]| | | | |] eqn:Hr; cbn [bind] in H; try discriminate.
    destruct (IH n1 Hr) as (y & k & Hin & Hy). exists y, k. split; [right; exact Hin | exact Hy].
  - exists x, n. split; [left; reflexivity | exact Hf].
Qed.

Theorem conv_outofmodel lc hi : forall g ctx n, conv lc hi ctx g n = OutOfModel -> ptr_to_value ctx g = true.
Proof.
  apply (goval_ind' (fun g => forall ctx n, conv lc hi ctx g n = OutOfModel -> ptr_to_value ctx g = true)).
  intros g IH ctx n H.
  destruct g as [|x|w z|w z|w f|s|s|[l|]|[m|]|cnt|fs|[g'|]|mar|[g'|]|mv u|ev|]; cbn [conv] in H; try discriminate.
  - destruct (z <? two63)%Z; discriminate.
  - (* slice *)
    cbn [children] in IH. cbn [ptr_to_value].
    destruct (match l with [] => (zerobase_id, n) | _ :: _ => (n, n + 1) end) as [id n1].
    destruct (thread _ l n1) as [[vs n2]| | | | |] eqn:Ht; cbn [bind] in H; try discriminate.
    apply thread_oom in Ht as (x & k & Hin & Hx).
    apply existsb_exists. exists x. split; [exact Hin|].
    rewrite Forall_forall in IH. apply (IH x Hin CSlot k).
    destruct (conv lc hi CSlot x k) as [[v k']| | | | |]; cbn [bind] in Hx; try discriminate. reflexivity.
  - (* map *)
    cbn [children] in IH. cbn [ptr_to_value].
    destruct (thread _ m (n + 1)) as [[vs n2]| | | | |] eqn:Ht; cbn [bind] in H; try discriminate.
    apply thread_oom in Ht as (x & k & Hin & Hx).
    apply existsb_exists. exists x. split; [exact Hin|].
    rewrite Forall_forall in IH. apply (IH (snd x) (in_map snd _ _ Hin) CSlot k).
    destruct (conv lc hi CSlot (snd x) k) as [[v k']| | | | |]; cbn [bind] in Hx; try discriminate. reflexivity.
  - destruct (cnt =? 0); discriminate.
  - (* struct *)
    cbn [children] in IH. cbn [ptr_to_value].
    destruct (thread _ fs (n + 1)) as [[vs n2]| | | | |] eqn:Ht; cbn [bind] in H; try discriminate.
    apply thread_oom in Ht as (x & k & Hin & Hx).
    apply existsb_exists. exists x. split; [exact Hin|].
    destruct (fst (snd x)); [|discriminate]. cbn [andb].
    rewrite Forall_forall in IH.
    apply (IH (snd (snd (snd x))) (in_map (fun fd => snd (snd (snd fd))) _ _ Hin) CSlot k).
    destruct (conv lc hi CSlot (snd (snd (snd x))) k) as [[v k']| | | | |]; cbn [bind] in Hx; try discriminate. reflexivity.
  - cbn [children] in IH. inversion IH as [|? ? IHx _]; subst. cbn [ptr_to_value]. eapply IHx; exact H.
  - destruct mar, ctx; try discriminate; reflexivity.
  - cbn [children] in IH. inversion IH as [|? ? IHx _]; subst. cbn [ptr_to_value]. eapply IHx; exact H.
  - cbn [children] in IH. inversion IH as [|? ? IHx _]; subst. cbn [ptr_to_value].
    destruct ctx; try discriminate. eapply IHx; exact H.
  - cbn [ptr_to_value]. destruct ctx; try discriminate; [reflexivity|].
    destruct ev as [| |x|z|f|s|id l|id m]; try discriminate.
    destruct l; discriminate.
Qed.

(* NewWith either converts, panics, or (exactly at a pointer to a data.Value, see Spec/ConvertSpec.v) returns that pointer *)
Theorem convert_outofmodel hi lc g : convert_with hi lc g = OutOfModel -> ptr_to_value CSlot g = true.
Proof.
  unfold convert_with. intros H.
  destruct (conv lc hi CSlot g (start_id g)) as [[v n']| | | | |] eqn:Hc; cbn [bind] in H; try discriminate.
  eapply conv_outofmodel; exact Hc.
Qed.

(* NewWith on a data.Value returns that value: converting the result of a conversion again
   returns it unchanged (same structure, same identities) and allocates nothing *)
Theorem conv_value_id lc hi v n : conv lc hi CSlot (GValue v) n = Ok (v, n).
Proof. reflexivity. Qed.

Theorem convert_idempotent hi lc g v :
  convert_with hi lc g = Ok v -> forall lc', convert_with hi lc' (GValue v) = Ok v.
Proof. intros _ lc'. reflexivity. Qed.

(* an ASCII first letter: A-Z gain 32, everything else stays; the rest of the name is untouched *)
Theorem lower_camel_ascii hi c rest : c < 128 ->
  lower_camel_key hi (c :: rest) = (if (65 <=? c) && (c <=? 90) then c + 32 else c) :: rest.
Proof.
  intros Hc. unfold lower_camel_key, decode_rune.
  replace (c <? 128) with true by (symmetry; lia).
  unfold to_lower, ascii_to_lower. replace (c <? 128) with true by (symmetry; lia).
  cbn [drop]. unfold encode_rune.
  destruct ((65 <=? c) && (c <=? 90)) eqn:E.
  - replace (c + 32 <? 128) with true by (symmetry; lia). reflexivity.
  - replace (c <? 128) with true by (symmetry; lia). reflexivity.
Qed.

Definition valid_rune (r : N) : Prop := r < 1114112 /\ ~ (55296 <= r <= 57343).

Lemma valid_rune_scalar r : valid_rune r -> valid_scalar r.
Proof. unfold valid_rune, valid_scalar. lia. Qed.

(* a name that starts with the code point r (any script): r is lowered with unicode.ToLower,
   re-encoded, and the rest of the name is untouched *)
Theorem lower_camel_rune hi r rest : valid_rune r ->
  lower_camel_key hi (encode_rune r ++ rest) = encode_rune (to_lower hi r) ++ rest.
Proof.
  intros Hv. unfold lower_camel_key. rewrite decode_encode, drop_app_len by (apply valid_rune_scalar, Hv). reflexivity.
Qed.

(* with the option off the name is kept *)
Theorem field_key_off hi name : field_key false hi name = name.
Proof. reflexivity. Qed.
