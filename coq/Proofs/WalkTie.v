(* The STRUCTURAL tie of Model/Interp.v to soyhtml/exec.go (part 1: the tables).

   Generated/Tables.v holds, for every clause of the type switch of
   state.walk and for the walker's helper functions, the ordered tree of
   events the Go code performs syntactically (go/cmd/tablegen/walkevents.go:
   which children are evaluated/walked/rendered in which order, push/pop/set of
   the scope, writes to s.wr, assignments to fields of the state, errorf, with
   the loops, ifs, short-circuit operands and switches they sit in).

   This file holds the SAME table written by hand, one definition per node type,
   from the model's side: [ev_X] is what [walk_node] does on the constructor that
   models X (Proofs/WalkTieProbes.v runs [walk_body] on probe nodes whose children
   are distinguishable markers and checks the trace against an interpreter of these
   event lists), and one lemma per node type states that the generated tree and the
   hand-written one have the SAME PATHS ([same_paths]): the set of event sequences
   (calls with their canonical arguments, stores, panics) along every way through
   the tree -- each if both ways, each switch clause, a short-circuit operand
   evaluated or not, each loop 0, 1 and 2 times with break / continue / return, an
   errorf or panic ending the path -- is the same.  Names of locals, helper methods
   split off or inlined, if/else against early return, an if-chain against a switch
   do not change the paths (the generator prints canonical names: see
   walkevents.go); reordering two evaluations, dropping a pop, adding a write, an
   errorf or a call of anything that is not a pure builtin does, and breaks [tie_X];
   so does a new clause in walk ([tie_names]).

   Known differences between what the hand table says and what [walk_node] does are
   listed at the entry (search DIFF). *)
From Coq Require Import List NArith String.
From Coq Require Import Bool.
From Soy Require Import Model.Bytes Generated.Tables Proofs.BytesBase Proofs.SourceTieBase.
Import ListNotations.
Open Scope N_scope.

Fixpoint norm_key (k : wkey) : wkey :=
  match k with
  | EkOther _ => EkOther []
  | EkCat a c => EkCat (norm_key a) (norm_key c)
  | k => k
  end.

Fixpoint norm (e : wev) : wev :=
  match e with
  | EvCall f a => EvCall f (map norm_key a)
  | EvLoop v o body => EvLoop v (norm_key o) (map norm body)
  | EvIf c t e => EvIf (map norm c) (map norm t) (map norm e)
  | EvShort r => EvShort (map norm r)
  | EvCases t cl => EvCases (map norm t) (map (fun p : bstr * list wev => let (l, body) := p in (l, map norm body)) cl)
  | EvInline f body => EvInline f (map norm body)
  | EvDefer body => EvDefer (map norm body)
  | x => x
  end.

(* ------------------------------------------------------------------ *)
(* the paths of an event tree *)

Fixpoint wkey_eqb (x y : wkey) : bool :=
  match x, y with
  | EkRef a, EkRef c => bstr_eqb a c
  | EkLit a, EkLit c => bstr_eqb a c
  | EkCat a1 a2, EkCat c1 c2 => wkey_eqb a1 c1 && wkey_eqb a2 c2
  | EkOther a, EkOther c => bstr_eqb a c
  | _, _ => false
  end.
Fixpoint list_eqb {A} (eqb : A -> A -> bool) (x y : list A) : bool :=
  match x, y with
  | [], [] => true
  | a :: x', c :: y' => eqb a c && list_eqb eqb x' y'
  | _, _ => false
  end.

(* what happens at one point of a path *)
Inductive atom := ACall (f : bstr) (args : list wkey) | AStore (lhs : bstr) | APanic | ADefer.
Definition atom_eqb (x y : atom) : bool :=
  match x, y with
  | ACall f a, ACall g c => bstr_eqb f g && list_eqb wkey_eqb a c
  | AStore a, AStore c => bstr_eqb a c
  | APanic, APanic => true
  | ADefer, ADefer => true
  | _, _ => false
  end.

(* how a path ends: running on, break, continue, return, stopped (errorf / panic) *)
Inductive pend := PN | PB | PC | PR | PX.
Definition pend_eqb (x y : pend) : bool :=
  match x, y with PN, PN | PB, PB | PC, PC | PR, PR | PX, PX => true | _, _ => false end.
Definition path := (list atom * pend)%type.
Definition path_eqb (x y : path) : bool := list_eqb atom_eqb (fst x) (fst y) && pend_eqb (snd x) (snd y).

Fixpoint dedup_paths (l : list path) : list path :=
  match l with
  | [] => []
  | x :: r => if existsb (path_eqb x) r then dedup_paths r else x :: dedup_paths r
  end.

(* [ps] followed by [rest] *)
Definition seq_paths (ps rest : list path) : list path :=
  dedup_paths (flat_map (fun p : path => match snd p with
                                         | PN => map (fun q : path => (fst p ++ fst q, snd q)) rest
                                         | _ => [p]
                                         end) ps).

(* a loop whose body has the paths [bp], run at most [n] times *)
Fixpoint loop_paths (bp : list path) (n : nat) : list path :=
  match n with
  | O => [([], PN)]
  | S n' =>
      let more := loop_paths bp n' in
      dedup_paths (([], PN) :: flat_map (fun p : path => match snd p with
                                                         | PN | PC => map (fun q : path => (fst p ++ fst q, snd q)) more
                                                         | PB => [(fst p, PN)]
                                                         | _ => [p]
                                                         end) bp)
  end.

Definition s_errorf := Eval vm_compute in b "s.errorf".
Definition l_default := Eval vm_compute in b "default".

Definition fuel_marker := Eval vm_compute in b "OUT OF FUEL".
Fixpoint paths (fuel : nat) (evs : list wev) {struct fuel} : list path :=
  match fuel with
  | O => [([AStore fuel_marker], PX)]
  | S f =>
      match evs with
      | [] => [([], PN)]
      | e :: rest =>
          let here :=
            match e with
            | EvCall fn args => [([ACall fn (map norm_key args)], if bstr_eqb fn s_errorf then PX else PN)]
            | EvAssign lhs => [([AStore lhs], PN)]
            | EvLoop _ _ body => loop_paths (paths f body) 2
            | EvIf c t e2 => seq_paths (paths f c) (dedup_paths (paths f t ++ paths f e2))
            | EvShort r => dedup_paths (([], PN) :: paths f r)
            | EvCases tag cl =>
                seq_paths (paths f tag)
                  (dedup_paths ((if existsb (fun p : bstr * list wev => bstr_eqb (fst p) l_default) cl then [] else [([], PN)])
                                ++ flat_map (fun p : bstr * list wev => let (_, body) := p in paths f body) cl))
            | EvInline _ body => map (fun p : path => match snd p with PR => (fst p, PN) | _ => p end) (paths f body)
            | EvDefer body => map (fun p : path => (ADefer :: fst p, PN)) (paths f body)
            | EvBreak => [([], PB)]
            | EvContinue => [([], PC)]
            | EvReturn => [([], PR)]
            | EvPanic => [([APanic], PX)]
            end in
          seq_paths here (paths f rest)
      end
  end.

(* the paths of an entry: a return ends it like running off its end *)
Definition entry_paths (evs : list wev) : list path :=
  dedup_paths (map (fun p : path => match snd p with PR => (fst p, PN) | _ => p end) (paths 60 evs)).
Definition subset_paths (x y : list path) : bool := forallb (fun p => existsb (path_eqb p) y) x.
Definition out_of_fuel (p : path) : bool := existsb (atom_eqb (AStore fuel_marker)) (fst p).
Definition same_paths (x y : list wev) : bool :=
  let px := entry_paths x in let py := entry_paths y in
  negb (match px with [] => true | _ => false end) && negb (existsb out_of_fuel px) && negb (existsb out_of_fuel py)
  && subset_paths px py && subset_paths py px.

(* ------------------------------------------------------------------ *)
(* A tree and its [norm] have the same paths: [paths] reads of a tree nothing that [norm] changes, a tree has the
   paths it has, and what is left of [same_paths] -- some path, none out of fuel -- is read off the tree ([fits]). *)

Lemma norm_key_idem k : norm_key (norm_key k) = norm_key k.
Proof. induction k; simpl; congruence. Qed.

Lemma paths_norm f : forall x, paths f (map norm x) = paths f x.
Proof.
  induction f as [|f IH]; [reflexivity|].
  assert (IHcl : forall cl : list (bstr * list wev),
             flat_map (fun p : bstr * list wev => let (_, body) := p in paths f body)
               (map (fun p : bstr * list wev => let (l, body) := p in (l, map norm body)) cl)
             = flat_map (fun p : bstr * list wev => let (_, body) := p in paths f body) cl
             /\ existsb (fun p : bstr * list wev => bstr_eqb (fst p) l_default)
                  (map (fun p : bstr * list wev => let (l, body) := p in (l, map norm body)) cl)
                = existsb (fun p : bstr * list wev => bstr_eqb (fst p) l_default) cl).
  { induction cl as [|[l body] cl [E1 E2]]; [easy|]. simpl. now rewrite IH, E1, E2. }
  intros [|e x]; [reflexivity|].
  cbn [map paths]. rewrite IH. f_equal.
  destruct e; cbn [norm]; rewrite ?IH; try reflexivity.
  - now rewrite map_map, (map_ext _ _ norm_key_idem).
  - now destruct (IHcl clauses) as [-> ->].
Qed.

Lemma wkey_eqb_refl k : wkey_eqb k k = true.
Proof. induction k; simpl; rewrite ?bstr_eqb_refl, ?IHk1, ?IHk2; reflexivity. Qed.
Lemma list_eqb_refl {A} (eqb : A -> A -> bool) : (forall a, eqb a a = true) -> forall l, list_eqb eqb l l = true.
Proof. intros H l; induction l; simpl; rewrite ?H; auto. Qed.
Lemma path_eqb_refl p : path_eqb p p = true.
Proof.
  unfold path_eqb. rewrite list_eqb_refl; [now destruct (snd p)|].
  intros [f a| | |]; simpl; rewrite ?bstr_eqb_refl, ?list_eqb_refl; auto using wkey_eqb_refl.
Qed.
Lemma subset_paths_refl l : subset_paths l l = true.
Proof.
  apply forallb_forall. intros p Hp. apply existsb_exists. exists p. split; [assumption | apply path_eqb_refl].
Qed.

(* [fits fuel evs]: [paths fuel evs] does not run out of fuel, and no store in [evs] looks as if it had *)
Fixpoint fits (fuel : nat) (evs : list wev) : bool :=
  match fuel, evs with
  | O, _ => false
  | _, [] => true
  | S f, e :: rest =>
      match e with
      | EvAssign lhs => negb (bstr_eqb fuel_marker lhs)
      | EvLoop _ _ body | EvShort body | EvInline _ body | EvDefer body => fits f body
      | EvIf c t e2 => fits f c && fits f t && fits f e2
      | EvCases tag cl => fits f tag && forallb (fun p : bstr * list wev => fits f (snd p)) cl
      | _ => true
      end && fits f rest
  end.

(* a set of paths that is not empty and holds no path out of fuel *)
Definition sound (l : list path) : Prop := l <> [] /\ Forall (fun p => out_of_fuel p = false) l.

Lemma dedup_incl l : incl (dedup_paths l) l.
Proof.
  induction l as [|x r IH]; simpl; [easy|].
  destruct (existsb (path_eqb x) r); auto using incl_tl, incl_cons, in_eq.
Qed.
Lemma dedup_nonempty l : l <> [] -> dedup_paths l <> [].
Proof.
  induction l as [|x r IH]; simpl; [easy|]. intros _.
  destruct (existsb (path_eqb x) r) eqn:E; [|easy]. apply IH. now destruct r.
Qed.
Lemma sound_dedup l : sound l -> sound (dedup_paths l).
Proof. intros [N F]. split; [now apply dedup_nonempty | exact (incl_Forall (dedup_incl l) F)]. Qed.
Lemma sound_flat_map {A} (g : A -> list path) l :
  l <> [] -> (forall a, In a l -> sound (g a)) -> sound (flat_map g l).
Proof.
  intros N H. split.
  - destruct l as [|a l]; [easy|]. simpl. destruct (H a (in_eq _ _)) as [Na _]. now destruct (g a).
  - apply Forall_flat_map, Forall_forall. intros a Ha. apply (H a Ha).
Qed.
Lemma sound_one p : out_of_fuel p = false -> sound [p].
Proof. split; [easy | now constructor]. Qed.
Lemma sound_app a c : sound a -> Forall (fun p => out_of_fuel p = false) c -> sound (a ++ c).
Proof. intros [Na Fa] Fc. split; [now destruct a | now apply Forall_app]. Qed.
Lemma sound_map (g : path -> path) l :
  (forall p, out_of_fuel p = false -> out_of_fuel (g p) = false) -> sound l -> sound (map g l).
Proof. intros H [N F]. split; [now destruct l | apply Forall_map; revert F; now apply Forall_impl]. Qed.
(* every path of [rest] behind the atoms of [p] *)
Lemma sound_behind (p : path) rest :
  out_of_fuel p = false -> sound rest -> sound (map (fun q : path => (fst p ++ fst q, snd q)) rest).
Proof. intros Hp. apply sound_map. intros q Hq. unfold out_of_fuel in *. cbn [fst]. now rewrite existsb_app, Hp. Qed.
Lemma sound_seq ps rest : sound ps -> sound rest -> sound (seq_paths ps rest).
Proof.
  intros [N F] R. apply sound_dedup, sound_flat_map; [assumption|]. intros p Hp.
  rewrite Forall_forall in F. specialize (F p Hp).
  destruct (snd p); auto using sound_one, sound_behind.
Qed.
Lemma sound_loop bp n : sound bp -> sound (loop_paths bp n).
Proof.
  intros [N F]. induction n as [|n IH]; cbn [loop_paths]; [now apply sound_one|].
  apply sound_dedup, (sound_app [_]); [now apply sound_one|]. apply sound_flat_map; [assumption|]. intros p Hp.
  rewrite Forall_forall in F. specialize (F p Hp).
  destruct (snd p) eqn:E; auto using sound_one, sound_behind.
Qed.

Lemma paths_sound f : forall x, fits f x = true -> sound (paths f x).
Proof.
  induction f as [|f IH]; [easy|]. intros [|e x]; [intros _; now apply sound_one|].
  cbn [fits paths]. intros [He Hx]%andb_prop. apply sound_seq; [|auto].
  destruct e; try (now apply sound_one).
  - apply sound_one. unfold out_of_fuel. cbn [fst existsb atom_eqb]. now rewrite orb_false_r, <- negb_true_iff.
  - auto using sound_loop.
  - apply andb_prop in He as [[Hc Ht]%andb_prop He]. apply sound_seq, sound_dedup, sound_app; try apply IH; auto.
  - apply sound_dedup, (sound_app [_]); [now apply sound_one | now apply IH].
  - apply andb_prop in He as [Ht Hcl]. apply sound_seq, sound_dedup; [auto|].
    assert (S : forall p : bstr * list wev, In p clauses -> sound (let (_, body) := p in paths f body)).
    { intros [l body] Hp. apply IH. exact (proj1 (forallb_forall _ _) Hcl _ Hp). }
    destruct (existsb _ clauses) eqn:E.
    + apply sound_flat_map; [now intros -> | exact S].
    + apply (sound_app [_]); [now apply sound_one|]. apply Forall_flat_map, Forall_forall. intros p Hp. apply (S p Hp).
  - apply sound_map; [now intros [a []]|auto].
  - apply sound_map; auto.
Qed.

Theorem same_paths_norm x y : map norm x = y -> fits 60 x = true -> same_paths x y = true.
Proof.
  intros <- F. unfold same_paths, entry_paths. rewrite paths_norm, subset_paths_refl.
  destruct (sound_dedup _ (sound_map (fun p : path => match snd p with PR => (fst p, PN) | _ => p end) _
                             ltac:(now intros [a []]) (paths_sound _ _ F))) as [N C].
  replace (existsb out_of_fuel _) with false; [now destruct (dedup_paths _)|].
  clear N. induction C as [|p l Hp _ IH]; simpl; [|rewrite Hp]; auto.
Qed.

(* ---- vocabulary of the hand-written tables ---- *)
Definition R (s : string) : wkey := EkRef (b s).
Definition L (s : string) : wkey := EkLit (b s).
Definition OTH : wkey := EkOther [].
Definition C (f : string) (a : list wkey) : wev := EvCall (b f) a.
Definition A (f : string) : wev := EvAssign (b f).
Definition ERR : wev := C "s.errorf" [].
Definition IFERR : wev := EvIf [] [ERR] [].          (* if <pure condition> { s.errorf(..) } *)
Definition LOOP (over : string) (body : list wev) : wev := EvLoop [] (R over) body.
Definition INL (f : string) (body : list wev) : wev := EvInline (b f) body.
Definition CASE (l : string) (body : list wev) : bstr * list wev := (b l, body).
Definition VAL : wev := A "s.val".
Definition WRITE_ERR : wev := IFERR.                  (* if _, err := <write>; err != nil { s.errorf } *)

(* ---- the walker's own pieces ---- *)

(* walk: s.val = Undefined; s.at(node); then the clause.  Model: [walk_body] = set_cur (pos_of n), then walk_node;
   s.val is the value [walk_node] returns. *)
Definition ev_walk := Eval vm_compute in [VAL; C "s.at" [R "node"]].
Definition ev_at := Eval vm_compute in [A "s.node"].
(* eval: prev = s.node; s.walk(n); s.node = prev; return s.val.  Model: [eval] (get; w e; set_cur (cur st0)). *)
Definition ev_eval := Eval vm_compute in [C "s.walk" [R "$1"]; A "s.node"; EvReturn].
Definition ev_evaldef := Eval vm_compute in [C "s.eval" [R "$1"]; IFERR; EvReturn].
(* renderBlock: the writer is swapped for a fresh buffer around the walk.  Model: [render_block]. *)
Definition ev_renderBlock := Eval vm_compute in [A "s.wr"; C "s.walk" [R "$1"]; A "s.wr"; EvReturn].
(* htmlEscapeString: per special byte, the text before it and then the entity; the rest at the end; the first
   refused write ends it.  Model: Escape.esc_writes + [write_all]. *)
Definition ev_htmlEscapeString := Eval vm_compute in
  [EvLoop [] OTH
     [EvCases [] [CASE "'""'" []; CASE "'\''" []; CASE "'&'" []; CASE "'<'" []; CASE "'>'" []; CASE "default" [EvContinue]];
      C "io.WriteString" [R "$1"; OTH]; EvIf [] [EvReturn] [];
      C "$1.Write" [R "?"]; EvIf [] [EvReturn] []];
   C "io.WriteString" [R "$1"; OTH]; EvReturn].
Definition ev_default := Eval vm_compute in [ERR].

(* ---- the entry points and the scope stack ---- *)
(* Renderer.Execute: template looked up; the namespace's autoescape mode, On when unspecified; a scope on the caller's
   data map, ENTERED (marked, and a fresh frame pushed above it); the template's node walked by a fresh state.
   Model: [render] ([find_template], [entry_mode], [sc_enter (new_scope id data)], [walk (t_node t)]). *)
Definition ev_Execute := Eval vm_compute in
  [EvIf [] [EvReturn] []; EvIf [] [EvReturn] [];
   C "s.tofu.registry.Template" [R "s.name"]; EvIf [] [EvReturn] [];
   EvIf [] [] [];
   C "newScope" [R "$2"]; C "?.enter" [];
   EvDefer [C "?.errRecover" [OTH]];
   C "?.walk" [R "?.Node"]; EvReturn].
(* EvalExpr: a bare state.  Model: [eval_expr]. *)
Definition ev_EvalExpr := Eval vm_compute in
  [EvDefer [C "?.errRecover" [OTH]]; C "?.walk" [R "$1"]; EvReturn].
(* scope.go.  Model: [new_scope], [sc_push] (a frame with a fresh map), [sc_pop], [sc_set] (on the deepest frame),
   [sc_lookup] + [bump_unbound] (deepest frame first; a miss is notified), [sc_alldata] (the frames up to the deepest
   entered one; none: panic), [sc_enter] (mark the deepest frame, then push). *)
Definition ev_newScope := Eval vm_compute in [EvReturn].
Definition ev_scope_push := Eval vm_compute in [A "*"].
Definition ev_scope_pop := Eval vm_compute in [A "*"].
Definition ev_scope_set := Eval vm_compute in [A ".vars[]"].
Definition ev_scope_lookup := Eval vm_compute in
  [LOOP "s" [EvIf [] [EvReturn] []]; C "notifyUnbound" [R "$1"]; EvReturn].
Definition ev_scope_alldata := Eval vm_compute in [LOOP "s" [EvIf [] [EvReturn] []]; EvPanic].
Definition ev_scope_enter := Eval vm_compute in [A ".entered"; INL "push" [A "*"]].

(* ---- structure ---- *)
Definition ev_SoyFileNode := Eval vm_compute in [LOOP "node.Body" [C "s.walk" [R "node.Body[]"]]].
Definition ev_TemplateNode := Eval vm_compute in [EvIf [] [A "s.autoescape"] []; C "s.walk" [R "node.Body"]].
Definition ev_HeaderParamNode : list wev := [].
Definition ev_DebuggerNode : list wev := [].
Definition ev_ListNode := Eval vm_compute in
  [C "s.context.push" []; LOOP "node.Nodes" [C "s.walk" [R "node.Nodes[]"]]; C "s.context.pop" []].

(* ---- output ---- *)
Definition ev_RawTextNode := Eval vm_compute in [C "s.wr.Write" [R "node.Text"]; WRITE_ERR].
Definition ev_MsgHtmlTagNode := Eval vm_compute in [C "s.wr.Write" [R "node.Text"]; WRITE_ERR].
Definition ev_CssNode := Eval vm_compute in
  [EvIf [] [C "s.eval" [R "node.Expr"]] [];
   C "io.WriteString" [R "s.wr"; EkCat (R "?") (R "node.Suffix")]; WRITE_ERR].
Definition ev_LogNode := Eval vm_compute in
  [C "s.renderBlock" [R "node.Body"]; EvIf [] [C "Logger.Print" [OTH]] []].
(* evalPrint: the argument is WALKED (s.node stays inside it); per directive: name and arity checked, its arguments
   evaluated, the directive applied; then one escaped or one plain write.
   [print_dirs] follows that order (each directive applied right after its own arguments: when an Apply fails the
   arguments of the later directives have not been evaluated; probe_Print_apply_order in WalkTieProbes.v). *)
Definition ev_PrintNode := Eval vm_compute in
  [INL "evalPrint"
     [C "s.walk" [R "node.Arg"]; IFERR;
      LOOP "ObligatoryPrintDirectiveNames" [];
      LOOP "?"
        [IFERR; IFERR;
         LOOP "?[].Args" [C "s.eval" [R "?[].Args[]"]; A "[]"];
         INL "func" [EvDefer [EvIf [] [ERR] []]; C "?.Apply" [R "?"; R "?"]];
         EvIf [] [] []];
      EvIf []
        [C "htmlEscapeString" [R "s.wr"; R "?.String()"]; WRITE_ERR]
        [C "io.WriteString" [R "s.wr"; R "?.String()"]; WRITE_ERR]]].

(* ---- control flow ---- *)
Definition ev_IfNode := Eval vm_compute in
  [LOOP "node.Conds"
     [EvIf [EvShort [C "s.eval" [R "node.Conds[].Cond"]]] [C "s.walk" [R "node.Conds[].Body"]; EvBreak] []]].
Definition ev_ForNode := Eval vm_compute in
  [C "s.eval" [R "node.List"]; IFERR;
   EvIf [] [EvIf [] [C "s.walk" [R "node.IfEmpty"]] []; EvReturn] [];
   C "s.context.push" [];
   C "s.context.set" [EkCat (R "node.Var") (L ".lastIndex"); OTH];
   LOOP "?"
     [C "s.context.set" [R "node.Var"; R "?[]"];
      C "s.context.set" [EkCat (R "node.Var") (L ".index"); OTH];
      C "s.walk" [R "node.Body"]];
   C "s.context.pop" []].
Definition ev_SwitchNode := Eval vm_compute in
  [C "s.eval" [R "node.Value"];
   LOOP "node.Cases"
     [LOOP "node.Cases[].Values"
        [EvIf [C "s.eval" [R "node.Cases[].Values[]"]] [C "s.walk" [R "node.Cases[].Body"]; EvReturn] []];
      EvIf [] [C "s.walk" [R "node.Cases[].Body"]; EvReturn] []]].
Definition ev_LetValueNode := Eval vm_compute in
  [C "s.eval" [R "node.Expr"]; C "s.context.set" [R "node.Name"; OTH]].
Definition ev_LetContentNode := Eval vm_compute in
  [C "s.renderBlock" [R "node.Body"]; C "s.context.set" [R "node.Name"; OTH]].
(* evalCall: the callee is looked up first; the data scope is built (all data: the caller's frames from the
   entered one + a fresh frame; data=: a new scope on the map + a fresh frame; none: a new scope on a fresh map);
   the params are evaluated / rendered in the CALLER's state and set on the callee's scope in order; s.at(node);
   enter; the callee's node is walked by a NEW state.  Model: [call_data], [call_params], set_cur, [call_enter]. *)
Definition ev_CallNode := Eval vm_compute in
  [INL "evalCall"
     [C "s.registry.Template" [R "node.Name"]; IFERR;
      EvIf [] [C "s.context.alldata" []; C "?.push" []]
        [EvIf [] [C "s.eval" [R "node.Data"]; IFERR; C "newScope" [R "?"]; C "?.push" []]
           [C "newScope" [OTH]]];
      LOOP "node.Params"
        [EvCases []
           [CASE "*ast.CallParamValueNode" [C "s.eval" [R "node.Params[].Value"]; C "?.set" [R "node.Params[].Key"; OTH]];
            CASE "*ast.CallParamContentNode" [C "s.renderBlock" [R "node.Params[].Content"]; C "?.set" [R "node.Params[].Key"; OTH]];
            CASE "default" [ERR]]];
      C "s.at" [R "node"];
      C "?.enter" [];
      EvDefer [EvIf [] [EvPanic] []];
      C "?.walk" [R "?.Node"]]].

(* evalMsg.  Without a bundle, or when the bundle has no translation: walkMsgBody (raw text walked, a
   placeholder's body walked, a plural: its value evaluated, the first case with that value, else the default).
   With a translation: evalMsgParts.
   DIFF: the model renders WITHOUT a bundle ([walk_node] on NMsg is the first branch only; [c_msgs] is not read):
   the third branch has no counterpart in Model/Interp.v; the extended walker of Model/InterpExt.v takes it
   (Proofs/WalkTieProbesX.v probes it: probe_X_msg_flat ff.). *)
Definition ev_walkMsgBody := Eval vm_compute in
  INL "walkMsgBody"
    [LOOP "node.Body.Children()"
       [EvCases []
          [CASE "*ast.RawTextNode" [C "s.walk" [R "node.Body.Children()[]"]];
           CASE "*ast.MsgPlaceholderNode" [C "s.walk" [R "node.Body.Children()[].Body"]];
           CASE "*ast.MsgPluralNode"
             [INL "walkPlural"
                [C "s.eval" [R "node.Body.Children()[].Value"]; IFERR;
                 LOOP "node.Body.Children()[].Cases"
                   [EvIf [] [C "s.walkMsgBody" [R "node.Body.Children()[].Cases[].Body"]; EvReturn] []];
                 C "s.walkMsgBody" [R "node.Body.Children()[].Default"]]]]]].
Definition ev_MsgNode := Eval vm_compute in
  [INL "evalMsg"
     [EvIf [] [ev_walkMsgBody; EvReturn] [];
      C "s.msgs.Message" [R "node.ID"];
      EvIf [] [ev_walkMsgBody; EvReturn] [];
      INL "evalMsgParts"
        [LOOP "?.Parts"
           [EvCases []
              [CASE "soymsg.RawTextPart" [C "io.WriteString" [R "s.wr"; R "?.Parts[].Text"]; WRITE_ERR];
               CASE "soymsg.PlaceholderPart" [IFERR; C "s.walk" [R "?.Body"]];
               CASE "soymsg.PluralPart"
                 [INL "findPluralNode" [LOOP "node.Body.Children()" [EvIf [] [EvReturn] []]; ERR; EvPanic];
                  C "s.eval" [R "?.Value"]; IFERR;
                  C "s.msgs.PluralCase" [OTH]; IFERR;
                  C "s.evalMsgParts" [R "node"; R "?.Parts[].Cases[].Parts"]]]]]]].

(* ---- values and operators ---- *)
Definition ev_value := Eval vm_compute in [VAL].     (* Null String Int Float Bool Global *)
Definition ev_ListLiteralNode := Eval vm_compute in [LOOP "node.Items" [C "s.eval" [R "node.Items[]"]; A "[]"]; VAL].
Definition ev_MapLiteralNode := Eval vm_compute in [LOOP "node.Items" [C "s.eval" [R "node.Items[]"]; A "[]"]; VAL].
Definition ev_FunctionNode := Eval vm_compute in
  [INL "evalFunc"
     [EvIf [] [C "?" [R "s"; R "node.Args[].Key"]; EvReturn] [];
      EvIf []
        [IFERR;
         LOOP "node.Args" [C "s.eval" [R "node.Args[]"]; A "[]"];
         EvDefer [EvIf [] [ERR] []];
         C "?.Apply" [R "?"];
         EvIf [] [EvReturn] []; EvReturn] [];
      ERR; EvPanic];
   VAL].
Definition ev_DataRefNode := Eval vm_compute in
  [INL "evalDataRef"
     [EvIf [] [IFERR] [C "s.context.lookup" [R "node.Key"]];
      EvIf [] [EvReturn] [];
      LOOP "node.Access"
        [EvCases []
           [CASE "*ast.DataRefIndexNode" []; CASE "*ast.DataRefKeyNode" [];
            CASE "*ast.DataRefExprNode"
              [EvCases [C "s.eval" [R "node.Access[].Arg"]] [CASE "data.Int" []; CASE "default" []]];
            CASE "default" [ERR]];
         EvCases []
           [CASE "data.Undefined, data.Null" [EvIf [] [EvReturn] []; ERR];
            CASE "data.List" [IFERR]; CASE "data.Map" [IFERR]; CASE "default" [ERR]]];
      EvReturn];
   VAL].
Definition EVAL2DEF : wev := INL "eval2def" [C "s.evaldef" [R "node.Arg1"]; C "s.evaldef" [R "node.Arg2"]; EvReturn].
Definition FLOATS : list wev := [VAL].    (* toFloat of each operand: a pure function that may panic *)
Definition ev_NegateNode := Eval vm_compute in
  [EvCases [C "s.evaldef" [R "node.Arg"]] [CASE "data.Int" [VAL]; CASE "data.Float" [VAL]; CASE "default" [ERR]]].
Definition ev_AddNode := Eval vm_compute in
  [EVAL2DEF; EvCases [] [CASE "" [VAL]; CASE "" [VAL]; CASE "default" FLOATS]].
Definition ev_SubNode := Eval vm_compute in [EVAL2DEF; EvCases [] [CASE "" [VAL]; CASE "default" FLOATS]].
Definition ev_MulNode := Eval vm_compute in [EVAL2DEF; EvCases [] [CASE "" [VAL]; CASE "default" FLOATS]].
Definition ev_DivNode := Eval vm_compute in (EVAL2DEF :: FLOATS).
Definition ev_ModNode := Eval vm_compute in [EVAL2DEF; VAL].
Definition ev_eq := Eval vm_compute in [C "s.eval" [R "node.Arg1"]; C "s.eval" [R "node.Arg2"]; VAL].   (* Eq NotEq *)
Definition ev_cmp := Eval vm_compute in                                                              (* Lt Lte Gt Gte *)
  [C "s.evaldef" [R "node.Arg1"]; C "s.evaldef" [R "node.Arg2"]; VAL].
Definition ev_NotNode := Eval vm_compute in [C "s.eval" [R "node.Arg"]; VAL].
Definition ev_andor := Eval vm_compute in [C "s.eval" [R "node.Arg1"]; EvShort [C "s.eval" [R "node.Arg2"]]; VAL].
Definition ev_ElvisNode := Eval vm_compute in
  [C "s.eval" [R "node.Arg1"]; EvIf [] [VAL] [C "s.eval" [R "node.Arg2"]; VAL]].
Definition ev_TernNode := Eval vm_compute in
  [C "s.eval" [R "node.Arg1"]; EvIf [] [C "s.eval" [R "node.Arg2"]; VAL] [C "s.eval" [R "node.Arg3"]; VAL]].

(* ------------------------------------------------------------------ *)
(* the hand-written table as a whole *)
Definition model_walk_events : list (bstr * list wev) := Eval vm_compute in [
  (b "AddNode", ev_AddNode); (b "AndNode", ev_andor); (b "BoolNode", ev_value); (b "CallNode", ev_CallNode);
  (b "CssNode", ev_CssNode); (b "DataRefNode", ev_DataRefNode); (b "DebuggerNode", ev_DebuggerNode);
  (b "DivNode", ev_DivNode); (b "ElvisNode", ev_ElvisNode); (b "EqNode", ev_eq);
  (b "EvalExpr", ev_EvalExpr); (b "Execute", ev_Execute); (b "FloatNode", ev_value);
  (b "ForNode", ev_ForNode); (b "FunctionNode", ev_FunctionNode); (b "GlobalNode", ev_value); (b "GtNode", ev_cmp);
  (b "GteNode", ev_cmp); (b "HeaderParamNode", ev_HeaderParamNode); (b "IfNode", ev_IfNode); (b "IntNode", ev_value);
  (b "LetContentNode", ev_LetContentNode); (b "LetValueNode", ev_LetValueNode);
  (b "ListLiteralNode", ev_ListLiteralNode); (b "ListNode", ev_ListNode); (b "LogNode", ev_LogNode);
  (b "LtNode", ev_cmp); (b "LteNode", ev_cmp); (b "MapLiteralNode", ev_MapLiteralNode); (b "ModNode", ev_ModNode);
  (b "MsgHtmlTagNode", ev_MsgHtmlTagNode); (b "MsgNode", ev_MsgNode); (b "MulNode", ev_MulNode);
  (b "NegateNode", ev_NegateNode); (b "NotEqNode", ev_eq); (b "NotNode", ev_NotNode); (b "NullNode", ev_value);
  (b "OrNode", ev_andor); (b "PrintNode", ev_PrintNode); (b "RawTextNode", ev_RawTextNode);
  (b "SoyFileNode", ev_SoyFileNode); (b "StringNode", ev_value); (b "SubNode", ev_SubNode);
  (b "SwitchNode", ev_SwitchNode); (b "TemplateNode", ev_TemplateNode); (b "TernNode", ev_TernNode);
  (b "at", ev_at); (b "default", ev_default); (b "eval", ev_eval); (b "evaldef", ev_evaldef);
  (b "htmlEscapeString", ev_htmlEscapeString); (b "newScope", ev_newScope); (b "renderBlock", ev_renderBlock);
  (b "scope_alldata", ev_scope_alldata); (b "scope_enter", ev_scope_enter); (b "scope_lookup", ev_scope_lookup);
  (b "scope_pop", ev_scope_pop); (b "scope_push", ev_scope_push); (b "scope_set", ev_scope_set); (b "walk", ev_walk)].

(* ------------------------------------------------------------------ *)
(* one lemma per node type: the events of exec.go are the events of the model.
   [tie] first tries same_paths_norm -- exec.go's tree is the hand-written one up to [norm]; no path is enumerated --
   and otherwise enumerates the paths of both trees (vm_compute).  The fall-back is deliberate: an entry whose Go
   text has been rearranged without changing its paths (a behaviour-preserving refactoring) must still be tied, not
   raise an alarm; the lemmas do not record which route was taken. *)
Local Ltac tie := first [apply same_paths_norm; reflexivity | vm_compute; reflexivity].

(* the node types where order matters *)
Lemma tie_PrintNode : same_paths src_walk_PrintNode ev_PrintNode = true. Proof. tie. Qed.
Lemma tie_IfNode : same_paths src_walk_IfNode ev_IfNode = true. Proof. tie. Qed.
Lemma tie_SwitchNode : same_paths src_walk_SwitchNode ev_SwitchNode = true. Proof. tie. Qed.
Lemma tie_ForNode : same_paths src_walk_ForNode ev_ForNode = true. Proof. tie. Qed.
Lemma tie_LetValueNode : same_paths src_walk_LetValueNode ev_LetValueNode = true. Proof. tie. Qed.
Lemma tie_LetContentNode : same_paths src_walk_LetContentNode ev_LetContentNode = true. Proof. tie. Qed.
Lemma tie_CallNode : same_paths src_walk_CallNode ev_CallNode = true. Proof. tie. Qed.
Lemma tie_MsgNode : same_paths src_walk_MsgNode ev_MsgNode = true. Proof. tie. Qed.
(* the walker's own pieces *)
Lemma tie_walk : same_paths src_walk_walk ev_walk = true. Proof. tie. Qed.
Lemma tie_at : same_paths src_walk_at ev_at = true. Proof. tie. Qed.
Lemma tie_eval : same_paths src_walk_eval ev_eval = true. Proof. tie. Qed.
Lemma tie_evaldef : same_paths src_walk_evaldef ev_evaldef = true. Proof. tie. Qed.
Lemma tie_renderBlock : same_paths src_walk_renderBlock ev_renderBlock = true. Proof. tie. Qed.
Lemma tie_htmlEscapeString : same_paths src_walk_htmlEscapeString ev_htmlEscapeString = true. Proof. tie. Qed.
Lemma tie_default : same_paths src_walk_default ev_default = true. Proof. tie. Qed.
(* the entry points and the scope stack *)
Lemma tie_Execute : same_paths src_walk_Execute ev_Execute = true. Proof. tie. Qed.
Lemma tie_EvalExpr : same_paths src_walk_EvalExpr ev_EvalExpr = true. Proof. tie. Qed.
Lemma tie_newScope : same_paths src_walk_newScope ev_newScope = true. Proof. tie. Qed.
Lemma tie_scope_push : same_paths src_walk_scope_push ev_scope_push = true. Proof. tie. Qed.
Lemma tie_scope_pop : same_paths src_walk_scope_pop ev_scope_pop = true. Proof. tie. Qed.
Lemma tie_scope_set : same_paths src_walk_scope_set ev_scope_set = true. Proof. tie. Qed.
Lemma tie_scope_lookup : same_paths src_walk_scope_lookup ev_scope_lookup = true. Proof. tie. Qed.
Lemma tie_scope_alldata : same_paths src_walk_scope_alldata ev_scope_alldata = true. Proof. tie. Qed.
Lemma tie_scope_enter : same_paths src_walk_scope_enter ev_scope_enter = true. Proof. tie. Qed.
(* structure and output *)
Lemma tie_SoyFileNode : same_paths src_walk_SoyFileNode ev_SoyFileNode = true. Proof. tie. Qed.
Lemma tie_TemplateNode : same_paths src_walk_TemplateNode ev_TemplateNode = true. Proof. tie. Qed.
Lemma tie_HeaderParamNode : same_paths src_walk_HeaderParamNode ev_HeaderParamNode = true. Proof. tie. Qed.
Lemma tie_DebuggerNode : same_paths src_walk_DebuggerNode ev_DebuggerNode = true. Proof. tie. Qed.
Lemma tie_ListNode : same_paths src_walk_ListNode ev_ListNode = true. Proof. tie. Qed.
Lemma tie_RawTextNode : same_paths src_walk_RawTextNode ev_RawTextNode = true. Proof. tie. Qed.
Lemma tie_MsgHtmlTagNode : same_paths src_walk_MsgHtmlTagNode ev_MsgHtmlTagNode = true. Proof. tie. Qed.
Lemma tie_CssNode : same_paths src_walk_CssNode ev_CssNode = true. Proof. tie. Qed.
Lemma tie_LogNode : same_paths src_walk_LogNode ev_LogNode = true. Proof. tie. Qed.
(* values and operators *)
Lemma tie_NullNode : same_paths src_walk_NullNode ev_value = true. Proof. tie. Qed.
Lemma tie_StringNode : same_paths src_walk_StringNode ev_value = true. Proof. tie. Qed.
Lemma tie_IntNode : same_paths src_walk_IntNode ev_value = true. Proof. tie. Qed.
Lemma tie_FloatNode : same_paths src_walk_FloatNode ev_value = true. Proof. tie. Qed.
Lemma tie_BoolNode : same_paths src_walk_BoolNode ev_value = true. Proof. tie. Qed.
Lemma tie_GlobalNode : same_paths src_walk_GlobalNode ev_value = true. Proof. tie. Qed.
Lemma tie_ListLiteralNode : same_paths src_walk_ListLiteralNode ev_ListLiteralNode = true. Proof. tie. Qed.
Lemma tie_MapLiteralNode : same_paths src_walk_MapLiteralNode ev_MapLiteralNode = true. Proof. tie. Qed.
Lemma tie_FunctionNode : same_paths src_walk_FunctionNode ev_FunctionNode = true. Proof. tie. Qed.
Lemma tie_DataRefNode : same_paths src_walk_DataRefNode ev_DataRefNode = true. Proof. tie. Qed.
Lemma tie_NegateNode : same_paths src_walk_NegateNode ev_NegateNode = true. Proof. tie. Qed.
Lemma tie_AddNode : same_paths src_walk_AddNode ev_AddNode = true. Proof. tie. Qed.
Lemma tie_SubNode : same_paths src_walk_SubNode ev_SubNode = true. Proof. tie. Qed.
Lemma tie_MulNode : same_paths src_walk_MulNode ev_MulNode = true. Proof. tie. Qed.
Lemma tie_DivNode : same_paths src_walk_DivNode ev_DivNode = true. Proof. tie. Qed.
Lemma tie_ModNode : same_paths src_walk_ModNode ev_ModNode = true. Proof. tie. Qed.
Lemma tie_EqNode : same_paths src_walk_EqNode ev_eq = true. Proof. tie. Qed.
Lemma tie_NotEqNode : same_paths src_walk_NotEqNode ev_eq = true. Proof. tie. Qed.
Lemma tie_LtNode : same_paths src_walk_LtNode ev_cmp = true. Proof. tie. Qed.
Lemma tie_LteNode : same_paths src_walk_LteNode ev_cmp = true. Proof. tie. Qed.
Lemma tie_GtNode : same_paths src_walk_GtNode ev_cmp = true. Proof. tie. Qed.
Lemma tie_GteNode : same_paths src_walk_GteNode ev_cmp = true. Proof. tie. Qed.
Lemma tie_NotNode : same_paths src_walk_NotNode ev_NotNode = true. Proof. tie. Qed.
Lemma tie_AndNode : same_paths src_walk_AndNode ev_andor = true. Proof. tie. Qed.
Lemma tie_OrNode : same_paths src_walk_OrNode ev_andor = true. Proof. tie. Qed.
Lemma tie_ElvisNode : same_paths src_walk_ElvisNode ev_ElvisNode = true. Proof. tie. Qed.
Lemma tie_TernNode : same_paths src_walk_TernNode ev_TernNode = true. Proof. tie. Qed.

(* the entries: no clause of walk, and no piece of the walker, is outside the lemmas above *)
Lemma tie_names : map fst src_walk_events = map fst model_walk_events.
Proof. reflexivity. Qed.
(* and the whole table at once: entry by entry, the lemmas above in the table's order *)
Theorem walk_events_match_source :
  forallb (fun p : bstr * list wev => match assoc_s (fst p) model_walk_events with
                                      | Some evs => same_paths (snd p) evs
                                      | None => false
                                      end) src_walk_events = true.
Proof.
  apply forallb_forall, Forall_forall. repeat apply Forall_cons; [> .. | apply Forall_nil].
  - exact tie_AddNode. - exact tie_AndNode. - exact tie_BoolNode. - exact tie_CallNode. - exact tie_CssNode.
  - exact tie_DataRefNode. - exact tie_DebuggerNode. - exact tie_DivNode. - exact tie_ElvisNode. - exact tie_EqNode.
  - exact tie_EvalExpr. - exact tie_Execute. - exact tie_FloatNode. - exact tie_ForNode. - exact tie_FunctionNode.
  - exact tie_GlobalNode. - exact tie_GtNode. - exact tie_GteNode. - exact tie_HeaderParamNode. - exact tie_IfNode.
  - exact tie_IntNode. - exact tie_LetContentNode. - exact tie_LetValueNode. - exact tie_ListLiteralNode.
  - exact tie_ListNode. - exact tie_LogNode. - exact tie_LtNode. - exact tie_LteNode. - exact tie_MapLiteralNode.
  - exact tie_ModNode. - exact tie_MsgHtmlTagNode. - exact tie_MsgNode. - exact tie_MulNode. - exact tie_NegateNode.
  - exact tie_NotEqNode. - exact tie_NotNode. - exact tie_NullNode. - exact tie_OrNode. - exact tie_PrintNode.
  - exact tie_RawTextNode. - exact tie_SoyFileNode. - exact tie_StringNode. - exact tie_SubNode. - exact tie_SwitchNode.
  - exact tie_TemplateNode. - exact tie_TernNode. - exact tie_at. - exact tie_default. - exact tie_eval.
  - exact tie_evaldef. - exact tie_htmlEscapeString. - exact tie_newScope. - exact tie_renderBlock.
  - exact tie_scope_alldata. - exact tie_scope_enter. - exact tie_scope_lookup. - exact tie_scope_pop.
  - exact tie_scope_push. - exact tie_scope_set. - exact tie_walk.
Qed.

(* ------------------------------------------------------------------ *)
(* What the walker stores to, and what it asks of the message bundle -- read off the extracted events.
   Every assignment of exec.go's walker whose target is not a local variable is an [EvAssign]; every call that is
   not a pure builtin is an [EvCall].  So: the walker stores only to the fields of its own state, to the
   argument / item slices it has just made and (scope.go) to the scope stack, the map of its deepest frame and that
   frame's entered flag, and the only things it does with the message bundle it was given
   (s.msgs, an interface value supplied by the caller) are the two getters Message and PluralCase: the bundle, and
   the parts of the message it returns (ranged over, never assigned to), are READ-ONLY to a render.  (C08: "never
   modifies the ... message bundle it is given".) *)
Fixpoint evs_assigns (e : wev) : list bstr :=
  match e with
  | EvAssign lhs => [lhs]
  | EvLoop _ _ body => flat_map evs_assigns body
  | EvIf c t e2 => flat_map evs_assigns c ++ flat_map evs_assigns t ++ flat_map evs_assigns e2
  | EvShort r => flat_map evs_assigns r
  | EvCases t cl => flat_map evs_assigns t ++ flat_map (fun p : bstr * list wev => let (_, body) := p in flat_map evs_assigns body) cl
  | EvInline _ body => flat_map evs_assigns body
  | EvDefer body => flat_map evs_assigns body
  | _ => []
  end.
Fixpoint evs_calls (e : wev) : list bstr :=
  match e with
  | EvCall f _ => [f]
  | EvLoop _ _ body => flat_map evs_calls body
  | EvIf c t e2 => flat_map evs_calls c ++ flat_map evs_calls t ++ flat_map evs_calls e2
  | EvShort r => flat_map evs_calls r
  | EvCases t cl => flat_map evs_calls t ++ flat_map (fun p : bstr * list wev => let (_, body) := p in flat_map evs_calls body) cl
  | EvInline _ body => flat_map evs_calls body
  | EvDefer body => flat_map evs_calls body
  | _ => []
  end.
Definition all_events : list wev := flat_map (fun p : bstr * list wev => snd p) src_walk_events.
Definition among (allowed : list bstr) (l : list bstr) : bool := forallb (fun x => existsb (bstr_eqb x) allowed) l.

Definition store_targets : list bstr := Eval vm_compute in
  map b ["s.val"; "s.node"; "s.wr"; "s.autoescape"; "[]" (* an element of a local slice or map: args, items *);
         "*"; ".vars[]"; ".entered" (* scope.go: the scope stack itself, the deepest frame's map and flag *)]%string.
Lemma walker_store_targets : among store_targets (flat_map evs_assigns all_events) = true.
Proof. vm_compute; reflexivity. Qed.

Definition is_bundle_call (f : bstr) : bool := is_prefix (b "s.msgs") f.
Definition bundle_getters : list bstr := Eval vm_compute in map b ["s.msgs.Message"; "s.msgs.PluralCase"]%string.
Lemma walker_bundle_calls : among bundle_getters (filter is_bundle_call (flat_map evs_calls all_events)) = true.
Proof. vm_compute; reflexivity. Qed.
(* and they are there (the filter is not vacuous) *)
Lemma walker_bundle_calls_present : among (filter is_bundle_call (flat_map evs_calls all_events)) bundle_getters = true.
Proof. vm_compute; reflexivity. Qed.
