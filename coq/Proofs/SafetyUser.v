(* C06: the walker with HOOKED entries of soyhtml.Funcs / soyhtml.PrintDirectives
   (Model/InterpSafety.v section 5) -- functions and print directives supplied by the user under
   the recover wrappers of evalFunc / evalPrint, and (Model/InterpJson.v) the library functions
   Model/Interp.v leaves outside the model.

   - recover_func_answers / recover_directive_answers: whatever the user's code does short of not
     returning -- return any value, return nil, panic with anything -- the wrapped call is a value
     or an error value; *_cases: which one.
   - sphi_walk_body_hook / walk_hook_logic: the hooked walker satisfies every (node-indexed) walker
     logic of Proofs/InterpSub.v / InterpLogic.v whose pure-site condition holds of the hooks.
   - walk_hook_no_escape, walk_hook_deep, walk_hook_pos, render_hook_no_escape_pos: the three
     invariants behind C06_render_no_escape, for the hooked walker and Renderer.Execute around it.
   - walk_user_no_escape / render_user_no_escape: the instance for user code that returns or panics. *)
From Coq Require Import Lia ZifyBool.
From Soy Require Import Model.Bytes Model.Num Model.Values Model.Outcome Model.Ast
  Model.Escape Model.Directives Model.Print Generated.Tables Model.Interp Model.InterpSafety
  Spec.Safety Proofs.ValueProofs Proofs.InterpLogic Proofs.InterpSub
  Proofs.SafetyPure Proofs.SafetyNodes Proofs.SafetyProofs.
Open Scope N_scope.

Definition returns_or_panics (r : user_result) : Prop := r <> UNoReturn.

Theorem recover_func_answers r : returns_or_panics r -> nf (recover_func r).
Proof. destruct r as [[v|]|m|]; cbn; intros H; try exact I. apply H. reflexivity. Qed.

Theorem recover_directive_answers r : returns_or_panics r -> nf (recover_directive r).
Proof. destruct r as [[v|]|m|]; cbn; intros H; try exact I. apply H. reflexivity. Qed.

(* a panic becomes an error value; nil becomes null (function) / an error (directive) *)
Theorem recover_func_cases r :
  match r with
  | UReturn (Some v) => recover_func r = Ok v
  | UReturn None => recover_func r = Ok VNull
  | UPanic _ => is_err (recover_func r) = true
  | UNoReturn => recover_func r = Diverge
  end.
Proof. destruct r as [[v|]|m|]; reflexivity. Qed.

Theorem recover_directive_cases r :
  match r with
  | UReturn x => recover_directive r = Ok x
  | UPanic _ => is_err (recover_directive r) = true
  | UNoReturn => recover_directive r = Diverge
  end.
Proof. destruct r as [[v|]|m|]; reflexivity. Qed.

(* the hooked walker, for every node-indexed walker logic *)

Section HookLogic.
Variable cf : cfg.
Variable fhooks : bstr -> option func_hook.
Variable dir_table : bstr -> option dir_entry.
Variable Phi : forall A : Type, M A -> Prop.
Arguments Phi {A} _.
Variable pure_ok : forall A : Type, outcome A -> Prop.
Arguments pure_ok {A} _.
Hypothesis L : walker_logic_sub (@Phi) (@pure_ok).
Hypothesis PS : pure_sites_sub (@pure_ok).
(* the pure sites the hooks add: the hooked calls *)
Hypothesis PF : forall name h vs, fhooks name = Some h -> pure_ok (fh_apply h vs).
Hypothesis PD : forall mode ds v, pure_ok (print_writes_hook dir_table mode ds v).
(* ... and the application of ONE directive inside the loop (evalPrint applies each directive right after its arguments) *)
Hypothesis PA : forall ds v esc, pure_ok (apply_dirs_hook dir_table ds v esc).

Ltac phi_bind := apply (ws_bind _ _ L); [ | intro ].

Lemma sphi_hook_call (w : node -> M value) name h args :
  (forall x, In x args -> Phi (w x)) -> fhooks name = Some h -> Phi (hook_call w h args).
Proof.
  intros Hw Hu. unfold hook_call. destruct (negb _); [apply (ws_fail _ _ L)|].
  phi_bind.
  - apply (sphi_eval_list _ _ L w args Hw).
  - apply (ws_lift _ _ L). eapply PF. exact Hu.
Qed.

Lemma sphi_print_dirs_hook (w : node -> M value) l :
  (forall x, In x (flat_map dir_subs l) -> Phi (w x)) -> forall v, Phi (print_dirs_hook cf dir_table w l v).
Proof.
  induction l as [|d r IH]; intros H v; cbn [print_dirs_hook]; [apply (ws_ret _ _ L)|].
  assert (Hr : forall v', Phi (print_dirs_hook cf dir_table w r v')).
  { apply IH. intros y Hy. apply H. apply in_flat_map_tl. exact Hy. }
  destruct d; try apply (ws_fail _ _ L).
  destruct (dir_table name) as [de|]; [|apply (ws_fail _ _ L)].
  destruct (negb _); [apply (ws_fail _ _ L)|].
  phi_bind; [apply (sphi_eval_list _ _ L w args); intros y Hy; apply H; apply in_flat_map_hd; exact Hy|].
  phi_bind; [apply (ws_lift _ _ L); apply PA|].
  phi_bind; [apply Hr|]. apply (ws_ret _ _ L).
Qed.

Lemma sphi_print_hook (w : node -> M value) arg dirs :
  Phi (w arg) -> (forall x, In x (flat_map dir_subs dirs) -> Phi (w x)) -> Phi (print_hook cf dir_table w arg dirs).
Proof.
  intros Ha Hd. unfold print_hook. phi_bind; [exact Ha|].
  assert (Hrest : Phi (ds <-- print_dirs_hook cf dir_table w dirs (Some x) ;;;
                       st <-- get ;;;
                       ws <-- lift (print_writes_hook dir_table (mode st) ds x) ;;;
                       _ <-- write_all ws ;;; ret VUndef)).
  { phi_bind; [apply (sphi_print_dirs_hook w dirs Hd)|].
    apply (ws_read_mode _ _ L _ (fun md => ws <-- lift (print_writes_hook dir_table md x0 x) ;;; _ <-- write_all ws ;;; ret VUndef)).
    intros md. phi_bind; [apply (ws_lift _ _ L); apply PD|].
    phi_bind; [apply (sphi_write_all _ _ L) | apply (ws_ret _ _ L)]. }
  destruct x; try exact Hrest. apply (ws_fail _ _ L).
Qed.

Theorem sphi_walk_body_hook (w : node -> M value) n :
  Phi (modify (fun st => set_cur st (pos_of n))) ->
  (forall n', In n' (subnodes n) -> Phi (w n')) ->
  (forall callee cd, callee_of cf n = Some callee -> Phi (call_enter w callee cd)) ->
  Phi (walk_body_hook cf fhooks dir_table w n).
Proof.
  intros Hcur H Hcall.
  assert (Hdef : Phi (walk_body cf w n)) by (apply (phi_walk_body_sub cf _ _ L PS w n Hcur H Hcall)).
  destruct n; cbn [walk_body_hook]; try exact Hdef.
  - (* NFunc *)
    destruct (is_loop_func name); [exact Hdef|].
    destruct (fhooks name) as [h|] eqn:Hu; [|exact Hdef].
    phi_bind; [exact Hcur|]. eapply sphi_hook_call; [|exact Hu]. exact H.
  - (* NPrint *)
    phi_bind; [exact Hcur|]. cbn [subnodes] in H. apply sphi_print_hook.
    + apply H. left. reflexivity.
    + intros y Hy. apply H. right. exact Hy.
Qed.
End HookLogic.

(* the form for full walker logics: [Phi (w n)] for every node *)
Theorem walk_hook_logic cf fhooks dir_table (Phi : forall A : Type, M A -> Prop) (pure_ok : forall A : Type, outcome A -> Prop) :
  walker_logic Phi pure_ok -> pure_sites pure_ok ->
  (forall name h vs, fhooks name = Some h -> pure_ok _ (fh_apply h vs)) ->
  (forall mode ds v, pure_ok _ (print_writes_hook dir_table mode ds v)) ->
  (forall ds v esc, pure_ok _ (apply_dirs_hook dir_table ds v esc)) ->
  forall fuel n, Phi _ (walk_hook cf fhooks dir_table fuel n).
Proof.
  intros L PS PF PD PA. induction fuel as [|fuel IH]; intros n; cbn [walk_hook].
  - apply (wl_lift _ _ L). apply (ps_fuel _ PS).
  - apply (sphi_walk_body_hook cf fhooks dir_table _ _ (walker_logic_to_sub _ _ L) (pure_sites_to_sub _ PS) PF PD PA).
    + apply (wl_set_cur _ _ L).
    + intros n' _. apply IH.
    + intros callee cd _. apply (wl_enter _ _ L). apply IH.
Qed.

(* hooks that answer: values or error values (or values outside the model) *)

Definition hooks_answer (fhooks : bstr -> option func_hook) (dir_table : bstr -> option dir_entry) : Prop :=
  (forall name h vs, fhooks name = Some h -> nf (fh_apply h vs)) /\
  (forall name de ap v args, dir_table name = Some de -> de_impl de = DHook ap -> nf (ap v args)).

Section HookDirs.
Variable dir_table : bstr -> option dir_entry.
Hypothesis HD : forall name de ap v args, dir_table name = Some de -> de_impl de = DHook ap -> nf (ap v args).

Theorem apply_dirs_hook_nf : forall dirs v esc, nf (apply_dirs_hook dir_table dirs v esc).
Proof.
  induction dirs as [|[name args] rest IH]; intros v esc; cbn [apply_dirs_hook]; [exact I|].
  destruct (dir_table name) as [de|] eqn:Hde; [|exact I].
  destruct (negb _); [exact I|].
  apply nf_bind; [|intros v'; apply IH].
  destruct (de_impl de) as [fn nilapply|ap] eqn:Himpl.
  - destruct nilapply; [exact I|].
    destruct (Directives.fn_is fn fn_NoAutoescape); [exact I|].
    destruct v as [x|]; [|exact I].
    apply nf_bind; [apply pans_nf, pans_value_string|]. intros s.
    apply nf_bind; [apply pans_nf, pans_apply_fn|]. intros s'. exact I.
  - eapply HD; eauto.
Qed.

Theorem print_writes_hook_nf mode dirs v : nf (print_writes_hook dir_table mode dirs v).
Proof.
  unfold print_writes_hook. apply nf_bind; [apply apply_dirs_hook_nf|]. intros [v' esc].
  apply nf_bind; [destruct v' as [x|]; [apply pans_nf, pans_value_string | exact I]|]. intros s. exact I.
Qed.
End HookDirs.

(* A. never a panic out of the walker, never a loop of its own *)
Theorem walk_hook_no_escape cf fhooks dir_table :
  hooks_answer fhooks dir_table ->
  forall fuel n st, no_escape (fst (walk_hook cf fhooks dir_table fuel n st)).
Proof.
  intros [HF HD] fuel n st.
  destruct (walk_hook cf fhooks dir_table fuel n st) as [r st'] eqn:H.
  assert (PF : forall name h vs, fhooks name = Some h -> inv_pure_ok allowed_nc (fh_apply h vs)).
  { intros name h vs Hin. apply nf_pure_nc. eapply HF. exact Hin. }
  assert (PD : forall mode ds v, inv_pure_ok allowed_nc (print_writes_hook dir_table mode ds v)).
  { intros. apply nf_pure_nc. apply print_writes_hook_nf. exact HD. }
  assert (PA : forall ds v esc, inv_pure_ok allowed_nc (apply_dirs_hook dir_table ds v esc)).
  { intros. apply nf_pure_nc. apply apply_dirs_hook_nf. exact HD. }
  pose proof (walk_hook_logic cf fhooks dir_table _ _ (inv_logic _ _ _ _ nc_conditions) nc_pure_sites PF PD PA fuel n st r st' I H) as H1.
  cbn [fst]. destruct r; cbn in H1 |- *; try exact I; destruct H1 as [_ []].
Qed.

(* B. below the entry template the position register is not touched (any hooks) *)
Lemma inv_pure_any {A} (o : outcome A) : inv_pure_ok (fun _ => True) o.
Proof. unfold inv_pure_ok. destruct (classify o); exact I. Qed.

Theorem walk_hook_deep cf fhooks dir_table fuel n st r st' :
  walk_hook cf fhooks dir_table fuel n st = (r, st') -> Rdeep st st'.
Proof.
  intros H.
  pose proof (walk_hook_logic cf fhooks dir_table _ _ (inv_logic _ _ _ _ deep_conditions) pure_sites_any
                (fun _ _ _ _ => inv_pure_any _) (fun _ _ _ => inv_pure_any _) (fun _ _ _ => inv_pure_any _) fuel n st r st' I H) as H1.
  destruct (classify r); destruct H1; assumption.
Qed.

(* C. at depth 0 the position register stays inside the source (any hooks) *)
Lemma rel_pure_any {A} (o : outcome A) : rel_pure_ok (fun _ => True) o.
Proof. unfold rel_pure_ok. destruct (classify o); exact I. Qed.

Theorem walk_hook_pos B cf fhooks dir_table : forall fuel n, node_all (pos_le B) n = true ->
  rel_spec (Rpos B) (fun _ => True) (walk_hook cf fhooks dir_table fuel n).
Proof.
  induction fuel as [|fuel IH]; intros n Hn.
  - cbn [walk_hook]. apply (rel_lift _ _ (pos_rel_conditions B)). exact I.
  - cbn [walk_hook].
    apply (sphi_walk_body_hook cf fhooks dir_table _ _ (rel_logic_sub _ _ (pos_rel_conditions B))
             (pure_sites_sub_any _ (fun _ => I)) (fun _ _ _ _ => rel_pure_any _) (fun _ _ _ => rel_pure_any _)
             (fun _ _ _ => rel_pure_any _)).
    + apply pos_set_cur. exact Hn.
    + intros n' Hin. apply IH. exact (node_all_sub (pos_le B) (pos_le_syn B) n n' Hn Hin).
    + intros callee cd _. apply pos_call_enter. intros st r st'. apply walk_hook_deep.
Qed.

(* D. Renderer.Execute around the hooked walker *)
Theorem render_hook_no_escape_pos cf fhooks dir_table fuel name data_id data cl bl first_id :
  hooks_answer fhooks dir_table ->
  reg_pos_ok (c_reg cf) = true ->
  no_escape (rr_outcome (render_hook cf fhooks dir_table fuel name data_id data cl bl first_id)).
Proof.
  intros Hh Hreg. unfold render_hook.
  destruct (find_template (r_templates (c_reg cf)) name) as [t|] eqn:Hf; [|exact I].
  apply find_template_some in Hf as [Hin Hname].
  set (st0 := init_state _ _ _ _ _ _).
  destruct (walk_hook cf fhooks dir_table fuel (t_node t) st0) as [r st] eqn:Hrun.
  pose proof (walk_hook_no_escape cf fhooks dir_table Hh fuel (t_node t) st0) as Hnc. rewrite Hrun in Hnc. cbn [fst] in Hnc.
  destruct r; cbn [rr_outcome]; try exact I; try exact Hnc.
  destruct (assoc_s name (r_sources (c_reg cf))) as [src|] eqn:Hsrc; [|exact I].
  destruct (assoc_s name (r_files (c_reg cf))) as [file|]; [|exact I].
  assert (Hcur : cur st <= N.of_nat (length src)).
  { unfold reg_pos_ok in Hreg. pose proof (forallb_In _ _ _ Hreg Hin) as Ht.
    unfold template_pos_ok in Ht. rewrite Hname, Hsrc in Ht.
    destruct (walk_hook_pos (N.of_nat (length src)) cf fhooks dir_table fuel (t_node t) Ht _ _ _ Hrun) as [[_ Hc] _].
    apply Hc. cbn. lia. }
  unfold line_number. destruct (N.leb_spec (cur st) (N.of_nat (length src))); [exact I | lia].
Qed.

Definition user_code_returns (ufuncs : bstr -> option user_func) (udirs : bstr -> option user_directive) : Prop :=
  (forall name uf vs, ufuncs name = Some uf -> returns_or_panics (uf_apply uf vs)) /\
  (forall name ud v args, udirs name = Some ud -> returns_or_panics (ud_apply ud v args)).

Lemma user_hooks_answer ufuncs udirs :
  user_code_returns ufuncs udirs -> hooks_answer (funcs_with_user ufuncs) (dirs_with_user udirs).
Proof.
  intros [HF HD]. split.
  - intros name h vs Hh. unfold funcs_with_user in Hh. destruct (ufuncs name) as [uf|] eqn:Hu; [|discriminate].
    injection Hh as <-. cbn [fh_apply hook_of_user]. apply recover_func_answers. eapply HF. exact Hu.
  - intros name de ap v args Hde Himpl. unfold dirs_with_user in Hde.
    destruct (udirs name) as [ud|] eqn:Hu.
    + injection Hde as <-. cbn [de_impl dir_of_user] in Himpl. injection Himpl as <-.
      apply recover_directive_answers. eapply HD. exact Hu.
    + unfold builtin_dirs in Hde. destruct (lookup_directive name) as [[arglens [cancel [nilapply fn]]]|]; [|discriminate].
      injection Hde as <-. cbn [de_impl] in Himpl. discriminate.
Qed.

(* the walker with ANY user functions and directives that return or panic *)
Theorem walk_user_no_escape cf ufuncs udirs :
  user_code_returns ufuncs udirs ->
  forall fuel n st, no_escape (fst (walk_user cf ufuncs udirs fuel n st)).
Proof. intros H. apply walk_hook_no_escape. apply user_hooks_answer. exact H. Qed.

(* Renderer.Execute with them: the handler's own code is safe too (positions stay inside the source) *)
Theorem render_user_no_escape cf ufuncs udirs fuel name data_id data cl bl first_id :
  user_code_returns ufuncs udirs -> reg_ok (c_reg cf) = true ->
  no_escape (rr_outcome (render_hook cf (funcs_with_user ufuncs) (dirs_with_user udirs) fuel name data_id data cl bl first_id)).
Proof.
  intros H Hreg. apply render_hook_no_escape_pos; [apply user_hooks_answer; exact H | apply reg_ok_pos; exact Hreg].
Qed.

(* a user function that does not return: no wrapper helps (the witness) *)
Example user_noreturn_diverges :
  let uf := {| uf_arities := [0]; uf_apply := fun _ => UNoReturn |} in
  let ufuncs := fun name => if bstr_eqb name (b "spin") then Some uf else None in
  fst (walk_user {| c_reg := empty_registry; c_ij := None; c_oblig := []; c_msgs := None |} ufuncs (fun _ => None) 3
         (NFunc 0 (b "spin") []) (init_state [] 0 [] None None 2)) = Diverge.
Proof. vm_compute. reflexivity. Qed.

(* ... one that panics is an error value at the function's node *)
Example user_panic_is_error :
  let uf := {| uf_arities := [1]; uf_apply := fun _ => UPanic (b "boom") |} in
  let ufuncs := fun name => if bstr_eqb name (b "f") then Some uf else None in
  let r := walk_user {| c_reg := empty_registry; c_ij := None; c_oblig := []; c_msgs := None |} ufuncs (fun _ => None) 3
             (NFunc 7 (b "f") [NInt 9 1]) (init_state [] 0 [] None None 2) in
  is_err (fst r) = true /\ cur (snd r) = 7.
Proof. vm_compute. split; reflexivity. Qed.

(* ... and a user directive receives the VALUE (here a list, whose length it prints) *)
Example user_directive_on_value :
  let ud := {| ud_arities := [0]; ud_cancel := true;
               ud_apply := fun v _ => match v with Some (VList _ l) => UReturn (Some (VInt (Z.of_nat (length l)))) | _ => UPanic (b "not a list") end |} in
  let udirs := fun name => if bstr_eqb name (b "count") then Some ud else None in
  let run n := walk_user {| c_reg := empty_registry; c_ij := None; c_oblig := []; c_msgs := None |} (fun _ => None) udirs 5
                 (NPrint 0 n [NDirective 5 (b "count") []]) (init_state [] 0 [] None None 2) in
  rev (out (snd (run (NListLit 1 [NInt 2 7; NInt 4 8])))) = [b "2"] /\ is_err (fst (run (NInt 1 3))) = true.
Proof. vm_compute. split; reflexivity. Qed.

(* ... the loop applies each directive before it looks at the next one: a panicking user directive followed by a
   directive whose ARGUMENT fails is reported at the first directive's node (the position register still holds it),
   and the later argument is never evaluated (it would have moved the register to 30) *)
Example user_directive_interleaved :
  let ud := {| ud_arities := [0]; ud_cancel := false; ud_apply := fun _ _ => UPanic (b "boom") |} in
  let udirs := fun name => if bstr_eqb name (b "bad") then Some ud else None in
  let r := walk_user {| c_reg := empty_registry; c_ij := None; c_oblig := []; c_msgs := None |} (fun _ => None) udirs 5
             (NPrint 0 (NInt 1 3) [NDirective 5 (b "bad") []; NDirective 20 (b "truncate") [NFunc 30 (b "nosuch") []]])
             (init_state [] 0 [] None None 2) in
  is_err (fst r) = true /\ cur (snd r) = 1.
Proof. vm_compute. split; reflexivity. Qed.
