(* C01: the tree walker of Model/Interp.v evaluates the translation of every Spec expression
   exactly as Spec/Expr.v says.  Part 3: one unfolding of the walker under an induction
   hypothesis on the recursive call, then the induction on the fuel (eval_impl_spec), and the
   print corollaries. *)
From Coq Require Import Lia ZifyBool.
From Soy Require Import Model.Bytes Model.Num Model.Values Model.Outcome Model.Ast Model.Interp
  Model.Escape Model.Directives Model.Print
  Model.ExprTrans Spec.Expr Generated.Tables Proofs.ValueProofs Proofs.EvalProofs Proofs.EvalFuncProofs.
From Soy Require Export Proofs.BytesBase.
Open Scope N_scope.

Definition ik_of (ix : index) : option Z * bstr :=
  match ix with IKey k => (None, k) | IPos i => (Some i, []) end.

Lemma max_list_le (l : list nat) x : In x l -> (x <= max_list l)%nat.
Proof.
  unfold max_list. induction l as [|y r IH]; cbn [In fold_right]; [tauto|].
  intros [->|H]; [apply Nat.le_max_l|]. specialize (IH H).
  etransitivity; [exact IH | apply Nat.le_max_r].
Qed.

Section Body.
Variable G : list (bstr * value).
Variable env : list (bstr * value).
Variable ij : option value.
Variable cf : cfg.
Hypothesis Hij : c_ij cf = ij.
Variable w : node -> M value.
Variable f : nat.
Hypothesis Hw : forall e, (height e <= f)%nat -> wf_expr G e = true ->
  sim env (eval_spec G env ij e) (w (to_node G e)).

Let ev := eval_spec G env ij.

Lemma items_sim es :
  (forall e, In e es -> (height e <= f)%nat) -> forallb (wf_expr G) es = true ->
  sim env (ev_items ev es) (eval_list w (map (to_node G) es)).
Proof.
  induction es as [|e r IH]; intros Hh Hwf; cbn [ev_items eval_list map].
  - apply sim_ret.
  - cbn [forallb] in Hwf. apply andb_true_iff in Hwf. destruct Hwf as [Hwe Hwr].
    apply sim_bind.
    + apply sim_eval. apply Hw; [apply Hh; left; reflexivity | exact Hwe].
    + intros v. apply sim_bind.
      * apply IH; [intros e' He'; apply Hh; right; exact He' | exact Hwr].
      * intros vs. apply sim_ret.
Qed.

Lemma entries_sim kvs :
  (forall kv, In kv kvs -> (height (snd kv) <= f)%nat) -> forallb (fun kv => wf_expr G (snd kv)) kvs = true ->
  sim env (ev_entries ev kvs) (maplit_items w (map (fun kv => (fst kv, to_node G (snd kv))) kvs)).
Proof.
  induction kvs as [|[k e] r IH]; intros Hh Hwf; cbn [ev_entries maplit_items map fst snd].
  - apply sim_ret.
  - cbn [forallb snd] in Hwf. apply andb_true_iff in Hwf. destruct Hwf as [Hwe Hwr].
    apply sim_bind.
    + apply sim_eval. apply Hw; [apply (Hh (k, e)); left; reflexivity | exact Hwe].
    + intros v. apply sim_bind.
      * apply IH; [intros kv Hkv; apply Hh; right; exact Hkv | exact Hwr].
      * intros m. apply sim_ret.
Qed.

Lemma index_of_sim v :
  sim_r env (fun ix ik => ik = ik_of ix) (rlift (index_of v))
    (match v with
     | VInt i => ret (Some i, @nil N)
     | _ => s <-- lift (value_string v) ;;; ret (@None Z, s)
     end).
Proof.
  assert (Hgen : forall o : outcome bstr,
            sim_r env (fun ix ik => ik = ik_of ix) (rlift (s <- o ;; Ok (IKey s)))
              (s <-- lift o ;;; ret (@None Z, s))).
  { intros o st _. unfold rlift, mbind, lift, ret, agree_r. destruct o as [s|em|em| | |]; cbn; try exact I.
    - exists (None, s), st. split; [reflexivity | split; [reflexivity | split; [apply frame_eq_refl | reflexivity]]].
    - exists em, st. split; [reflexivity | apply frame_eq_refl]. }
  destruct v; try apply Hgen.
  cbn [index_of]. intros st _. cbn.
  exists (Some z, []), st. split; [reflexivity | split; [reflexivity | split; [apply frame_eq_refl | reflexivity]]].
Qed.

Lemma nullsafe_acc_node a : is_nullsafe (acc_node G a) = acc_nullsafe a.
Proof. destruct a; reflexivity. Qed.

Lemma accesses_sim accs :
  (forall a, In a accs -> (acc_height a <= f)%nat) -> forallb (wf_access G) accs = true ->
  forall ref, sim env (ev_accesses ev accs ref) (dataref_access w (map (acc_node G) accs) ref).
Proof.
  induction accs as [|a rest IH]; intros Hh Hwf ref; cbn [ev_accesses dataref_access map].
  - apply sim_ret.
  - cbn [forallb] in Hwf. apply andb_true_iff in Hwf. destruct Hwf as [Hwa Hwr].
    assert (IH' : forall ref, sim env (ev_accesses ev rest ref) (dataref_access w (map (acc_node G) rest) ref)).
    { apply IH; [intros a' Ha'; apply Hh; right; exact Ha' | exact Hwr]. }
    apply sim_r_eq.
    apply (sim_r_bind env (fun ix ik => ik = ik_of ix) eq).
    + destruct a as [ns k | ns i | ns e]; cbn [acc_node].
      * apply sim_r_ret. reflexivity.
      * apply sim_r_ret. reflexivity.
      * apply (sim_r_bind env eq (fun ix ik => ik = ik_of ix)).
        -- apply sim_r_eq. apply sim_eval. apply Hw; [apply (Hh (AExpr ns e)); left; reflexivity | exact Hwa].
        -- intros v v' <-. apply index_of_sim.
    + intros ix ik ->. apply sim_r_eq. rewrite nullsafe_acc_node.
      destruct ref; destruct ix; cbn [ik_of access_step];
        try (destruct (acc_nullsafe a); [apply sim_ret | apply sim_err]);
        try apply sim_err.
      * rewrite element_list_index. apply IH'.
      * apply IH'.
Qed.

(* the call of a built-in function *)
Lemma call_sim fn args :
  (forall e, In e args -> (height e <= f)%nat) -> forallb (wf_expr G) args = true ->
  sim env (ev (ECall fn args)) (call_func w (fn_name fn) (map (to_node G) args)).
Proof.
  intros Hh Hwf. unfold ev. cbn [eval_spec]. unfold call_func.
  rewrite fn_arities_table, map_length, mem_of_nat.
  destruct (existsb (Nat.eqb (length args)) (fn_arities fn)) eqn:Har; cbn [negb]; [|apply sim_err].
  apply sim_bind; [apply items_sim; assumption|]. intros vs.
  intros st Hst. unfold rbind, mbind, rlift, lift, agree.
  pose proof (apply_rel fn vs) as Hrel.
  destruct (apply_fn_spec fn vs) as [r| | | | |]; cbn in Hrel; try exact I.
  - rewrite Hrel. destruct r as [v | l | m]; cbn [fres_of].
    + exists st. split; [reflexivity | split; [apply frame_eq_refl | reflexivity]].
    + exact (sim_new_list_result env l st Hst).
    + exact (sim_new_map env m st Hst).
  - destruct Hrel as [m' ->]. exists m', st. split; [reflexivity | apply frame_eq_refl].
Qed.

Lemma sim_walk_body (r : R value) (n : node) :
  sim env r (walk_node cf w n) -> sim env r (walk_body cf w n).
Proof.
  intros H. unfold walk_body. apply sim_pre; [|exact H].
  intros s. split; [apply frame_eq_set_cur | reflexivity].
Qed.

Lemma le_S_max a c : (S (Nat.max a c) <= S f)%nat -> (a <= f)%nat /\ (c <= f)%nat.
Proof. lia. Qed.

Lemma in_map_le {A} (h : A -> nat) (l : list A) x :
  (S (max_list (map h l)) <= S f)%nat -> In x l -> (h x <= f)%nat.
Proof.
  intros Hle Hin. pose proof (max_list_le (map h l) (h x) (in_map h l x Hin)). lia.
Qed.

(* one unfolding of state.walk on the translation of any expression of height <= S f *)
Theorem body_sim e : (height e <= S f)%nat -> wf_expr G e = true ->
  sim env (ev e) (walk_body cf w (to_node G e)).
Proof.
  intros Hh Hwf. apply sim_walk_body. unfold ev.
  destruct e as [ | x | z | x | s | es | kvs | name | key accs | accs | fn args | a | a | op a c | a c | c a d];
    cbn [to_node walk_node eval_spec]; cbn [height] in Hh; cbn [wf_expr] in Hwf; try apply sim_ret.
  - (* list literal *)
    apply sim_bind; [|intros vs; apply sim_new_list_literal].
    apply items_sim; [intros e He; exact (in_map_le height es e Hh He) | exact Hwf].
  - (* map literal *)
    apply andb_true_iff in Hwf. destruct Hwf as [_ Hwf].
    apply sim_bind; [|intros m; apply sim_new_map].
    apply entries_sim; [intros kv Hkv; exact (in_map_le (fun kv => height (snd kv)) kvs kv Hh Hkv) | exact Hwf].
  - (* global *)
    destruct (assoc_s name G); [apply sim_ret | discriminate].
  - (* data reference *)
    apply andb_true_iff in Hwf. destruct Hwf as [Hk Hwf].
    apply negb_true_iff in Hk. rewrite Hk.
    apply (sim_spec_ext env (r <~ rret (lookup env key) ;; ev_accesses (eval_spec G env ij) accs r)); [reflexivity|].
    apply sim_bind; [apply sim_lookup|]. intros ref.
    apply accesses_sim; [intros a Ha; exact (in_map_le acc_height accs a Hh Ha) | exact Hwf].
  - (* $ij *)
    change (bstr_eqb s_ij s_ij) with true. cbv iota. rewrite Hij.
    assert (Hacc : forall ref, sim env (ev_accesses ev accs ref) (dataref_access w (map (acc_node G) accs) ref))
      by (apply accesses_sim; [intros a Ha; exact (in_map_le acc_height accs a Hh Ha) | exact Hwf]).
    unfold ev in Hacc. case_eq ij; [intros v Eij | intros Eij].
    + apply (sim_spec_ext env (r <~ rret v ;; ev_accesses (eval_spec G env (Some v)) accs r)); [reflexivity|].
      apply sim_bind; [apply sim_ret|]. rewrite <- Eij. exact Hacc.
    + apply (sim_spec_ext env (r <~ rerr ;; ev_accesses (eval_spec G env ij) accs r)); [reflexivity|].
      apply sim_bind; [apply sim_err|exact Hacc].
  - (* function *)
    rewrite fn_not_loop.
    apply (call_sim fn args); [intros e He; exact (in_map_le height args e Hh He) | exact Hwf].
  - (* unary minus *)
    apply sim_bind; [apply sim_evaldef; apply Hw; [lia | exact Hwf]|].
    intros v. destruct v; cbn [sem_neg]; try apply sim_err; [|apply sim_ret].
    apply (sim_lift env (int_result (- z)) (Ok (VInt (wrap64 (- z))))). apply int_result_wrap.
  - (* not *)
    apply sim_bind; [apply sim_eval; apply Hw; [lia | exact Hwf]|]. intros v. apply sim_ret.
  - (* binary operators: the strict ones evaluate both operands, which must be defined *)
    apply andb_true_iff in Hwf. destruct Hwf as [Hwa Hwc].
    apply le_S_max in Hh. destruct Hh as [Hha Hhc].
    assert (Sa : sim env (eval_spec G env ij a) (eval w (to_node G a))) by (apply sim_eval; apply Hw; assumption).
    assert (Sc : sim env (eval_spec G env ij c) (eval w (to_node G c))) by (apply sim_eval; apply Hw; assumption).
    assert (Da : sim env (ev_defined (eval_spec G env ij) a) (evaldef w (to_node G a))) by (apply sim_evaldef; apply Hw; assumption).
    assert (Dc : sim env (ev_defined (eval_spec G env ij) c) (evaldef w (to_node G c))) by (apply sim_evaldef; apply Hw; assumption).
    destruct op; cbn [binop_of];
      try (apply sim_bind; [exact Da|]; intros x; apply sim_bind; [exact Dc|]; intros y; apply sim_lift;
           match goal with |- orel (sem_strict ?op _ _) _ => exact (strict_rel op x y I) end);
      (apply sim_bind; [exact Sa|]; intros x).
    + apply sim_bind; [exact Sc|]; intros y; apply sim_ret.
    + apply sim_bind; [exact Sc|]; intros y; apply sim_ret.
    + destruct (truthy x); [|apply sim_ret]. apply sim_bind; [exact Sc|]; intros y; apply sim_ret.
    + destruct (truthy x); [apply sim_ret|]. apply sim_bind; [exact Sc|]; intros y; apply sim_ret.
  - (* elvis *)
    apply andb_true_iff in Hwf. destruct Hwf as [Hwa Hwc].
    apply le_S_max in Hh. destruct Hh as [Hha Hhc].
    apply sim_bind; [apply sim_eval; apply Hw; assumption|]. intros x.
    replace (is_nullish x) with (null_or_undef x) by (destruct x; reflexivity).
    destruct (null_or_undef x); [apply sim_eval; apply Hw; assumption | apply sim_ret].
  - (* ternary *)
    apply andb_true_iff in Hwf. destruct Hwf as [Hwf Hwd]. apply andb_true_iff in Hwf. destruct Hwf as [Hwc Hwa].
    assert (Hc : (height c <= f)%nat) by lia. assert (Ha : (height a <= f)%nat) by lia. assert (Hd : (height d <= f)%nat) by lia.
    apply sim_bind; [apply sim_eval; apply Hw; assumption|]. intros x.
    destruct (truthy x); apply sim_eval; apply Hw; assumption.
Qed.
End Body.

Lemma height_pos e : (1 <= height e)%nat.
Proof. destruct e; cbn [height]; lia. Qed.

Theorem eval_sim G env ij cf : c_ij cf = ij ->
  forall fuel e, (height e <= fuel)%nat -> wf_expr G e = true ->
  sim env (eval_spec G env ij e) (walk cf fuel (to_node G e)).
Proof.
  intros Hij. induction fuel as [|f IH]; intros e Hh Hwf.
  - pose proof (height_pos e). lia.
  - change (walk cf (S f) (to_node G e)) with (walk_body cf (walk cf f) (to_node G e)).
    apply (body_sim G env ij cf Hij (walk cf f) f IH e Hh Hwf).
Qed.

(* the scope stack, flattened *)
Lemma sc_lookup_flatten s k : sc_lookup s k = assoc_s k (flatten s).
Proof.
  unfold flatten. induction s as [|fr r IH]; cbn [sc_lookup map concat]; [reflexivity|].
  rewrite assoc_s_app, IH. reflexivity.
Qed.

(* eval_impl_spec: for EVERY expression tree, every state of the walker (its scope stack
   flattened is the environment), injected data and fuel >= the nesting depth:
   when the Spec gives a value the walker returns that very value (fresh identities counted
   from the walker's next_id) and the counter the Spec predicts; when the Spec gives no value
   the walker returns an error; in both cases nothing is written and the scope is unchanged
   (frame_eq).  The remaining Spec outcome, OutOfModel (inexact float, int64 overflow,
   randomInt), is outside the statement. *)
Theorem eval_impl_spec G ij cf fuel e st :
  c_ij cf = ij -> wf_expr G e = true -> (height e <= fuel)%nat ->
  (forall v n', eval_spec G (flatten (ctx st)) ij e (next_id st) = Ok (v, n') ->
     exists st', walk cf fuel (to_node G e) st = (Ok v, st') /\ frame_eq st st' /\ next_id st' = n') /\
  (forall m, eval_spec G (flatten (ctx st)) ij e (next_id st) = Err m ->
     exists msg st', walk cf fuel (to_node G e) st = (Err msg, st') /\ frame_eq st st').
Proof.
  intros Hij Hwf Hh.
  pose proof (eval_sim G (flatten (ctx st)) ij cf Hij fuel e Hh Hwf st (fun k => sc_lookup_flatten (ctx st) k)) as H.
  unfold agree in H. split.
  - intros v n' E. rewrite E in H. exact H.
  - intros m E. rewrite E in H. exact H.
Qed.

Section Print.
Variable G : list (bstr * value).
Variable ij : option value.
Variable cf : cfg.
Hypothesis Hij : c_ij cf = ij.

Lemma walk_print_unfold fuel p arg dirs st :
  walk cf (S fuel) (NPrint p arg dirs) st =
  (v <-- walk cf fuel arg ;;;
   match v with
   | VUndef => fail e_undefined
   | _ =>
       ds <-- print_dirs cf (walk cf fuel) dirs v ;;;
       s <-- lift (value_string v) ;;;
       st1 <-- get ;;;
       ws <-- lift (print_writes (mode st1) ds s) ;;;
       _ <-- write_all ws ;;; ret VUndef
   end) (set_cur st p).
Proof. reflexivity. Qed.

(* the argument of a print is evaluated in the state with the node register set: eval_impl_spec there *)
Lemma print_arg fuel e p st : wf_expr G e = true -> (height e <= fuel)%nat ->
  (forall v n', eval_spec G (flatten (ctx st)) ij e (next_id st) = Ok (v, n') ->
     exists st', walk cf fuel (to_node G e) (set_cur st p) = (Ok v, st') /\ frame_eq st st' /\ next_id st' = n') /\
  (forall m, eval_spec G (flatten (ctx st)) ij e (next_id st) = Err m ->
     exists msg st', walk cf fuel (to_node G e) (set_cur st p) = (Err msg, st') /\ frame_eq st st').
Proof. intros Hwf Hh. exact (eval_impl_spec G ij cf fuel e (set_cur st p) Hij Hwf Hh). Qed.

Lemma print_stops fuel arg p dirs st r st' : walk cf fuel arg (set_cur st p) = (r, st') ->
  r = Ok VUndef \/ (exists m, r = Err m) -> frame_eq st st' ->
  exists msg, walk cf (S fuel) (NPrint p arg dirs) st = (Err msg, st') /\ out st' = out st /\ bufs st' = bufs st.
Proof.
  intros Hwalk Hr (_&_&_&_&Ho&Hb&_). rewrite walk_print_unfold. unfold mbind. rewrite Hwalk.
  destruct Hr as [->|[m ->]]; eexists; (split; [reflexivity|split; [exact Ho|exact Hb]]).
Qed.

(* a print of an expression that evaluates to undefined is an error and writes nothing *)
Theorem print_undefined_errors fuel e p dirs st n' :
  wf_expr G e = true -> (height e <= fuel)%nat ->
  eval_spec G (flatten (ctx st)) ij e (next_id st) = Ok (VUndef, n') ->
  exists msg st', walk cf (S fuel) (NPrint p (to_node G e) dirs) st = (Err msg, st') /\
                  out st' = out st /\ bufs st' = bufs st.
Proof.
  intros Hwf Hh E. destruct (print_arg fuel e p st Hwf Hh) as [Hok _]. destruct (Hok _ _ E) as (st'&Hwalk&Hfr&_).
  destruct (print_stops fuel _ p dirs st _ st' Hwalk (or_introl eq_refl) Hfr) as (msg & H). eauto.
Qed.

(* an expression the language gives no value makes the print an error, and no text is written for it *)
Theorem no_text_on_error fuel e p dirs st m :
  wf_expr G e = true -> (height e <= fuel)%nat ->
  eval_spec G (flatten (ctx st)) ij e (next_id st) = Err m ->
  exists msg st', walk cf (S fuel) (NPrint p (to_node G e) dirs) st = (Err msg, st') /\
                  out st' = out st /\ bufs st' = bufs st.
Proof.
  intros Hwf Hh E. destruct (print_arg fuel e p st Hwf Hh) as [_ Herr]. destruct (Herr _ E) as (msg0&st'&Hwalk&Hfr).
  destruct (print_stops fuel _ p dirs st _ st' Hwalk (or_intror (ex_intro _ msg0 eq_refl)) Hfr) as (msg & H). eauto.
Qed.

(* writes to a top-level writer that never fails *)
Lemma write_all_nofault ws st :
  bufs st = [] -> calls_left st = None -> bytes_left st = None ->
  exists st', write_all ws st = (Ok tt, st') /\ out st' = rev ws ++ out st /\
              bufs st' = [] /\ calls_left st' = None /\ bytes_left st' = None /\ ctx st' = ctx st.
Proof.
  revert st. induction ws as [|x r IH]; intros st Hb Hc Hl; cbn [write_all].
  - exists st. repeat split; assumption.
  - unfold mbind, write. rewrite Hb, Hc, Hl.
    destruct (IH (set_out st (x :: out st) None None) Hb eq_refl eq_refl) as (st'&Hw&Ho&Hb'&Hc'&Hl'&Hx).
    exists st'. rewrite Hw. split; [reflexivity|]. split.
    + rewrite Ho. cbn [rev set_out out]. rewrite <- app_assoc. reflexivity.
    + repeat split; assumption.
Qed.

(* the print of an expression that has a printable value writes its string image, html-escaped
   unless autoescaping is off (no directives, no obligatory directives, a writer that accepts everything) *)
Theorem print_renders_spec fuel e p st v n' s :
  wf_expr G e = true -> (height e <= fuel)%nat -> c_oblig cf = [] ->
  bufs st = [] -> calls_left st = None -> bytes_left st = None ->
  eval_spec G (flatten (ctx st)) ij e (next_id st) = Ok (v, n') -> v <> VUndef ->
  value_string v = Ok s ->
  exists st', walk cf (S fuel) (NPrint p (to_node G e) []) st = (Ok VUndef, st') /\
              concat_b (rev (out st')) = concat_b (rev (out st)) ++ (if mode st =? 2 then s else html_escape s).
Proof.
  intros Hwf Hh Hob Hb Hc Hl E Hv Hs.
  destruct (print_arg fuel e p st Hwf Hh) as [Hok _]. destruct (Hok _ _ E) as (st1&Hwalk&Hfr&_).
  destruct Hfr as (_&Hm&_&_&Ho&Hb1&Hc1&Hl1&_).
  set (ws := if negb (mode st1 =? 2) then esc_writes [] s else [s]).
  destruct (write_all_nofault ws st1) as (st2&Hw&Ho2&_); try congruence.
  exists st2. rewrite walk_print_unfold. unfold mbind at 1. rewrite Hwalk.
  assert (Hgo : (ds <-- print_dirs cf (walk cf fuel) [] v ;;;
                 s0 <-- lift (value_string v) ;;;
                 st3 <-- get ;;;
                 ws0 <-- lift (print_writes (mode st3) ds s0) ;;;
                 _ <-- write_all ws0 ;;; ret VUndef) st1 = (Ok VUndef, st2)).
  { cbn [print_dirs]. rewrite Hob. cbn [map]. unfold mbind, ret, lift, get. rewrite Hs.
    unfold print_writes. cbn [apply_directives bind]. fold ws. rewrite Hw. reflexivity. }
  split.
  - destruct v; try exact Hgo. contradiction.
  - rewrite Ho2, Ho, rev_app_distr, rev_involutive.
    assert (Hcat : forall a c, concat_b (a ++ c) = concat_b a ++ concat_b c).
    { induction a as [|x r IH]; intros c; cbn [app concat_b]; [reflexivity|]. rewrite IH, app_assoc. reflexivity. }
    rewrite Hcat. f_equal.
    unfold ws. rewrite Hm. destruct (mode st =? 2); cbn [negb concat_b]; [apply app_nil_r | reflexivity].
Qed.
End Print.
