(* The expression parser (Model/ExprParser.v) terminates with a tree or an error on every item
   stream of well-formed items, within a budget of mu + 1, never indexes token[2], and conserves
   [kap] (every item it consumes has a non-zero type). *)
From Soy Require Import Model.Bytes Model.Ast Model.Token Model.NumLit Model.Quote Model.ExprParser.
From Soy Require Import Generated.Tables Proofs.ParserMeasure.
From Coq Require Import ZifyBool Lia.
Open Scope N_scope.

Lemma is_binary_op_nz x : is_binary_op x = true -> x <> 0.
Proof. intros H E. rewrite E in H. vm_compute in H. discriminate. Qed.
Lemma is_unary_op_nz x : is_unary_op x = true -> x <> 0.
Proof. intros H E. rewrite E in H. vm_compute in H. discriminate. Qed.
Lemma is_value_nz x : is_value x = true -> x <> 0.
Proof. intros H E. rewrite E in H. vm_compute in H. discriminate. Qed.

Lemma slice_from_some k s : (k <= length s)%nat -> exists v, slice_from k s = Some v.
Proof. intros H. unfold slice_from. destruct (Nat.ltb_spec (length s) k); [lia|eauto]. Qed.

Section ExprTotal.
Variable inlen : N.
Variable NT : nat.
Variable eofchk : bool.
Notation pinv := (pinv inlen NT eofchk).
Notation nrel := (nrel inlen NT eofchk).
Notation krel := (krel inlen NT eofchk).
Notation ppost := (ppost inlen NT eofchk).
Notation twf := (twf inlen).

Ltac pnext p t p1 R :=
  let E := fresh "E" in
  match goal with Hi : pinv p |- _ => pose proof (p_next_rel inlen NT eofchk p Hi) as R end;
  destruct (p_next p) as [t p1] eqn:E; cbn [fst snd] in R.
Ltac dnrel R := destruct R as [?Ri ?Rtw ?Rpk ?Rpk1 ?Rcur ?Rl ?Rnz ?Rmu ?Rz ?Rbi ?Rbm ?Rbl ?Reof ?Rrest].
(* fin: a branch that returns POk -- the three conjuncts of ppost (invariant by auto, kap = b by lia, Q by auto/lia).
   perr: a branch that returns through errorf / unexpected. *)
Ltac fin := cbn [ppost]; unfold kap in *; (split; [solve [auto]|split; [lia|cbn beta; repeat (apply conj); auto; try lia]]).
Ltac perr := first [apply ppost_errorf|apply ppost_unexpected]; auto; unfold kap in *; lia.
(* a call in tail position: its bound on mu, stated against the state it starts from, gives the caller's *)
Ltac puse lem := eapply ppost_weaken; [apply lem; auto; unfold kap in *; lia|]; intros; cbn beta in *; lia.

Lemma twf_len1 t : twf t ->
  t_typ t = pk_itemDollarIdent \/ t_typ t = pk_itemDotIdent \/ t_typ t = pk_itemDotIndex -> (1 <= length (t_val t))%nat.
Proof.
  unfold ParserMeasure.twf, twfb. intros H [E|[E|E]]; rewrite E in H; vm_compute (_ =? _) in H; cbn [orb andb] in H; lia.
Qed.
Lemma twf_len2 t : twf t ->
  t_typ t = pk_itemQuestionDotIdent \/ t_typ t = pk_itemQuestionDotIndex -> (2 <= length (t_val t))%nat.
Proof.
  unfold ParserMeasure.twf, twfb. intros H [E|E]; rewrite E in H; vm_compute (_ =? _) in H; cbn [orb andb] in H; lia.
Qed.
Lemma p_expect_post b typ p :
  pinv p -> typ <> 0 -> kap p = b ->
  ppost b (fun t p' => mu p = S (mu p') /\ (p_peek p' <= 1)%nat /\ t = cur_tok p' /\ t_typ t = typ /\ twf t)
        (p_expect typ p).
Proof.
  intros Hi Hz Hb. unfold p_expect. pnext p t p1 R. dnrel R.
  destruct (N.eqb_spec (t_typ t) typ) as [Et|Et].
  - assert (t_typ t <> 0) by congruence. fin.
  - perr.
Qed.

Section Level.
Variable w : N -> pst -> presult node.
Variable L : nat.
Hypothesis Hw : forall prec p b, pinv p -> kap p = b -> (mu p < L)%nat ->
  ppost b (fun _ p' => (mu p' < mu p)%nat) (w prec p).

Lemma parse_ternary_ok cond p b :
  pinv p -> kap p = b -> (mu p < L)%nat ->
  ppost b (fun _ p' => (mu p' < mu p)%nat) (parse_ternary w cond p).
Proof.
  intros Hi Hb Hm. unfold parse_ternary.
  eapply ppost_bind; [apply Hw; auto|]. intros n1 p1 Hi1 Hb1 Hq1. cbn beta in Hq1.
  eapply ppost_bind; [apply p_expect_post; auto; vm_compute; intro; discriminate|].
  intros tk p2 Hi2 Hb2 (Hq2 & _). cbn beta.
  eapply ppost_bind; [apply Hw; auto; lia|]. intros n2 p3 Hi3 Hb3 Hq3. cbn beta in Hq3. fin.
Qed.

Lemma expr_loop_ok : forall lf prec n p b,
  pinv p -> kap p = b -> (mu p < L)%nat -> (mu p < lf)%nat ->
  ppost b (fun _ p' => (mu p' <= mu p)%nat) (expr_loop w lf prec n p).
Proof.
  induction lf as [|lf IH]; intros prec n p b Hi Hb Hm Hf; [lia|].
  cbn [expr_loop]. pnext p t p1 R. dnrel R.
  destruct (negb (is_binary_op (t_typ t)) || (prec_of (t_typ t) <? prec)) eqn:Ec.
  - clear Ec. destruct ((prec =? 0) && (t_typ t =? pk_itemTernIf)) eqn:Et; [|clear Et].
    + assert (Ety : t_typ t = pk_itemTernIf) by lia. clear Et. tnz Ety Hnz.
      puse parse_ternary_ok.
    + fin.
  - assert (Hbin : is_binary_op (t_typ t) = true) by (destruct (is_binary_op (t_typ t)); cbn in Ec; auto; discriminate).
    apply is_binary_op_nz in Hbin. clear Ec.
    eapply ppost_bind; [apply Hw; auto; unfold kap in *; lia|]. intros n2 p2 Hi2 Hb2 Hq2. cbn beta in Hq2.
    destruct (new_binary_op t n n2).
    + puse IH.
    + perr.
Qed.

Lemma data_ref_loop_ok : forall lf pos key acc p b,
  pinv p -> kap p = b -> (mu p < L)%nat -> (mu p < lf)%nat ->
  ppost b (fun _ p' => (mu p' <= mu p)%nat) (data_ref_loop w lf pos key acc p).
Proof.
  induction lf as [|lf IH]; intros pos key acc p b Hi Hb Hm Hf; [lia|].
  cbn [data_ref_loop]. pnext p t p1 R. dnrel R. cbv zeta.
  destruct ((t_typ t =? pk_itemQuestionDotIdent) || (t_typ t =? pk_itemDotIdent)) eqn:E1; [|clear E1].
  { pose proof E1 as Hnz. apply eqb2_nz in Hnz; [|nzc|nzc].
    assert (Hlen : ((if (t_typ t =? pk_itemQuestionDotIdent)%N then 2%nat else 1%nat) <= length (t_val t))%nat).
    { destruct (N.eqb_spec (t_typ t) pk_itemQuestionDotIdent) as [X|X].
      - apply twf_len2; auto.
      - apply twf_len1; auto. right; left. lia. }
    clear E1. destruct (slice_from_some _ _ Hlen) as (v & Ev). rewrite Ev.
    puse IH. }
  destruct ((t_typ t =? pk_itemQuestionDotIndex) || (t_typ t =? pk_itemDotIndex)) eqn:E2; [|clear E2].
  { pose proof E2 as Hnz. apply eqb2_nz in Hnz; [|nzc|nzc].
    assert (Hlen : ((if (t_typ t =? pk_itemQuestionDotIndex)%N then 2%nat else 1%nat) <= length (t_val t))%nat).
    { destruct (N.eqb_spec (t_typ t) pk_itemQuestionDotIndex) as [X|X].
      - apply twf_len2; auto.
      - apply twf_len1; auto. right; right. lia. }
    clear E2. destruct (slice_from_some _ _ Hlen) as (v & Ev). rewrite Ev.
    destruct (parse_int 10 v).
    - puse IH.
    - perr. }
  tcase2 ((t_typ t =? pk_itemQuestionKey) || (t_typ t =? pk_itemLeftBracket)) Hnz.
  { eapply ppost_bind; [apply Hw; auto; unfold kap in *; lia|]. intros e p2 Hi2 Hb2 Hq2. cbn beta in Hq2.
    eapply ppost_bind; [apply p_expect_post; auto; vm_compute; intro; discriminate|].
    intros tk p3 Hi3 Hb3 (Hq3 & _).
    puse IH. }
  fin.
Qed.

Lemma list_loop_ok : forall lf pos items p b,
  pinv p -> kap p = b -> (mu p < L)%nat -> (mu p < lf)%nat ->
  ppost b (fun _ p' => (mu p' <= mu p)%nat) (list_loop w lf pos items p).
Proof.
  induction lf as [|lf IH]; intros pos items p b Hi Hb Hm Hf; [lia|].
  cbn [list_loop].
  eapply ppost_bind; [apply Hw; auto|]. intros e p1 Hi1 Hb1 Hq1. cbn beta in Hq1. cbv zeta.
  pnext p1 nx p2 R. dnrel R.
  destruct (N.eqb_spec (t_typ nx) pk_itemRightBracket) as [Ea|_].
  { tnz Ea Hnz. fin. }
  destruct (N.eqb_spec (t_typ nx) pk_itemComma) as [Eb|_]; cbn [negb].
  - tnz Eb Hnz. puse IH.
  - perr.
Qed.

Lemma map_loop_ok : forall lf pos items key p b,
  pinv p -> kap p = b -> (mu p < L)%nat -> (mu p < lf)%nat ->
  ppost b (fun _ p' => (mu p' <= mu p)%nat) (map_loop w lf pos items key p).
Proof.
  induction lf as [|lf IH]; intros pos items key p b Hi Hb Hm Hf; [lia|].
  cbn [map_loop].
  eapply ppost_bind; [apply Hw; auto|]. intros e p1 Hi1 Hb1 Hq1. cbn beta in Hq1. cbv zeta.
  pnext p1 nx p2 R. dnrel R.
  destruct (N.eqb_spec (t_typ nx) pk_itemRightBracket) as [Ea|_].
  { tnz Ea Hnz. fin. }
  destruct (N.eqb_spec (t_typ nx) pk_itemComma) as [Eb|_]; cbn [negb].
  - tnz Eb Hnz.
    eapply ppost_bind; [apply p_expect_post; auto; [vm_compute; intro; discriminate|unfold kap in *; lia]|].
    intros kt p3 Hi3 Hb3 (Hq3 & _).
    destruct (unquote_string (t_val kt)).
    + eapply ppost_bind; [apply p_expect_post; auto; vm_compute; intro; discriminate|].
      intros ct p4 Hi4 Hb4 (Hq4 & _).
      puse IH.
    + perr.
  - perr.
Qed.

Lemma global_loop_ok : forall lf pos name p0 nx p b,
  pinv p0 -> nrel p0 nx p -> kap p0 = b -> (mu p0 < lf)%nat ->
  ppost b (fun _ p' => (mu p' <= mu p0)%nat) (global_loop lf pos name nx p).
Proof.
  induction lf as [|lf IH]; intros pos name p0 nx p b Hi0 R Hb Hf; [lia|].
  cbn [global_loop]. pose proof R as R0. dnrel R.
  destruct (N.eqb_spec (t_typ nx) pk_itemDotIdent) as [Ea|_].
  - tnz Ea Hnz. pnext p nx' p1 R'.
    puse (IH pos (name ++ t_val nx) p nx' p1 b).
  - fin.
Qed.

Lemma func_loop_ok : forall lf pos name args p b,
  pinv p -> kap p = b -> (mu p < L)%nat -> (mu p < lf)%nat ->
  ppost b (fun _ p' => (mu p' <= mu p)%nat) (func_loop w lf pos name args p).
Proof.
  induction lf as [|lf IH]; intros pos name args p b Hi Hb Hm Hf; [lia|].
  cbn [func_loop].
  eapply ppost_bind; [apply Hw; auto|]. intros e p1 Hi1 Hb1 Hq1. cbn beta in Hq1. cbv zeta.
  pnext p1 nx p2 R. dnrel R.
  destruct (N.eqb_spec (t_typ nx) pk_itemComma) as [Ea|_].
  { tnz Ea Hnz. puse IH. }
  destruct (N.eqb_spec (t_typ nx) pk_itemRightParen) as [Eb|_].
  - tnz Eb Hnz. fin.
  - perr.
Qed.

Variable lf : nat.
Hypothesis Hlf : (L <= lf)%nat.

Lemma new_function_node_ok t p b :
  pinv p -> kap p = b -> (mu p < L)%nat ->
  ppost b (fun _ p' => (mu p' <= mu p)%nat) (new_function_node w lf t p).
Proof.
  intros Hi Hb Hm. unfold new_function_node.
  pose proof (p_peek_rel inlen NT eofchk p Hi) as K.
  destruct (p_peek_tok p) as [pk p1] eqn:Ep. cbn [fst snd] in K. destruct K as [Ki Kpk Kl Km Kn Kr].
  destruct (N.eqb_spec (t_typ pk) pk_itemRightParen) as [Ea|_].
  - tnz Ea Hnz. pnext p1 t2 p2 R. cbn [snd] in Kn. assert (Et2 : t2 = pk) by congruence. rewrite Et2 in R. dnrel R. fin.
  - puse func_loop_ok.
Qed.

Lemma parse_map_literal_ok pos first p b :
  pinv p -> kap p = b -> (mu p < L)%nat ->
  ppost b (fun _ p' => (mu p' <= mu p)%nat) (parse_map_literal w lf pos first p).
Proof.
  intros Hi Hb Hm. unfold parse_map_literal.
  destruct first; try perr.
  apply map_loop_ok; auto; lia.
Qed.

Lemma parse_list_or_map_ok t p b :
  pinv p -> kap p = b -> (mu p < L)%nat ->
  ppost b (fun _ p' => (mu p' <= mu p)%nat) (parse_list_or_map w lf t p).
Proof.
  intros Hi Hb Hm. unfold parse_list_or_map. pnext p nx p1 R. dnrel R.
  destruct (N.eqb_spec (t_typ nx) pk_itemColon) as [Ea|_].
  { tnz Ea Hnz.
    eapply ppost_bind; [apply p_expect_post; auto; [vm_compute; intro; discriminate|unfold kap in *; lia]|].
    intros tk p2 Hi2 Hb2 (Hq2 & _). fin. }
  destruct (N.eqb_spec (t_typ nx) pk_itemRightBracket) as [Eb|_].
  { tnz Eb Hnz. fin. }
  eapply ppost_bind; [apply Hw; auto; unfold kap in *; lia|]. intros first p2 Hi2 Hb2 Hq2. cbn beta in Hq2.
  cbv zeta. pnext p2 d p3 R'. dnrel R'.
  destruct (N.eqb_spec (t_typ d) pk_itemColon) as [Ec|_].
  { tnz Ec Hnz. puse parse_map_literal_ok. }
  destruct (N.eqb_spec (t_typ d) pk_itemComma) as [Ed|_].
  { tnz Ed Hnz. puse list_loop_ok. }
  destruct (N.eqb_spec (t_typ d) pk_itemRightBracket) as [Ee|_].
  { tnz Ee Hnz. fin. }
  perr.
Qed.

Lemma new_value_node_ok t p b :
  pinv p -> twf t -> kap p = b -> (mu p < L)%nat ->
  ppost b (fun _ p' => (mu p' <= mu p)%nat) (new_value_node w lf t p).
Proof.
  intros Hi Htw Hb Hm. unfold new_value_node. cbv zeta.
  destruct (t_typ t =? pk_itemNull); [fin|].
  destruct (t_typ t =? pk_itemBool); [fin|].
  destruct (t_typ t =? pk_itemInteger).
  { match goal with |- context [match ?r with Some _ => _ | None => _ end] => destruct r end;
      [fin|perr]. }
  destruct (N.eqb_spec (t_typ t) pk_itemFloat) as [Ef|_].
  { destruct (parse_float (t_val t)); [fin|].
    destruct (parse_float_round (t_val t)); [fin|perr|perr]. }
  destruct (t_typ t =? pk_itemString).
  { destruct (unquote_string (t_val t)); [fin|perr]. }
  destruct (t_typ t =? pk_itemLeftBracket); [apply parse_list_or_map_ok; auto|].
  destruct (N.eqb_spec (t_typ t) pk_itemDollarIdent) as [Ed|_].
  { unfold parse_data_ref.
    assert (Hlen : (1 <= length (t_val t))%nat) by (apply twf_len1; auto).
    destruct (slice_from_some _ _ Hlen) as (v & Ev). rewrite Ev.
    apply data_ref_loop_ok; auto; lia. }
  destruct (t_typ t =? pk_itemIdent).
  { pnext p nx p1 R. pose proof R as R0. dnrel R.
    destruct (N.eqb_spec (t_typ nx) pk_itemLeftParen) as [Ea|_]; cbn [negb].
    - tnz Ea Hnz. puse new_function_node_ok.
    - eapply global_loop_ok; eauto; lia. }
  perr.
Qed.

Lemma parse_first_term_ok p b :
  pinv p -> kap p = b -> (mu p <= L)%nat ->
  ppost b (fun _ p' => (mu p' < mu p)%nat) (parse_first_term w lf p).
Proof.
  intros Hi Hb Hm. unfold parse_first_term. pnext p t p1 R. dnrel R.
  destruct (is_unary_op (t_typ t)) eqn:Eu.
  { apply is_unary_op_nz in Eu.
    eapply ppost_bind; [apply Hw; auto; unfold kap in *; lia|]. intros n p2 Hi2 Hb2 Hq2. cbn beta in Hq2.
    destruct (new_unary_op t n); [fin|perr]. }
  destruct (N.eqb_spec (t_typ t) pk_itemLeftParen) as [Ea|_].
  { tnz Ea Hnz.
    eapply ppost_bind; [apply Hw; auto; unfold kap in *; lia|]. intros n p2 Hi2 Hb2 Hq2. cbn beta in Hq2.
    eapply ppost_bind; [apply p_expect_post; auto; vm_compute; intro; discriminate|].
    intros tk p3 Hi3 Hb3 (Hq3 & _). fin. }
  destruct (is_value (t_typ t)) eqn:Ev.
  { apply is_value_nz in Ev.
    puse new_value_node_ok. }
  perr.
Qed.

Lemma parse_expr_body_ok prec p b :
  pinv p -> kap p = b -> (mu p <= L)%nat ->
  ppost b (fun _ p' => (mu p' < mu p)%nat) (parse_expr_body w lf prec p).
Proof.
  intros Hi Hb Hm. unfold parse_expr_body.
  eapply ppost_bind; [apply parse_first_term_ok; auto|]. intros n p1 Hi1 Hb1 Hq1. cbn beta in Hq1.
  puse expr_loop_ok.
Qed.
End Level.

(* fuel mu + 1 suffices *)
Theorem parse_expr_ok : forall f prec p b,
  pinv p -> kap p = b -> (mu p < f)%nat ->
  ppost b (fun _ p' => (mu p' < mu p)%nat) (parse_expr f prec p).
Proof.
  induction f as [|f IH]; intros prec p b Hi Hb Hm; [lia|].
  cbn [parse_expr]. apply parse_expr_body_ok with (L := f); auto; lia.
Qed.

End ExprTotal.
