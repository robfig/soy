(* C13: the recursion budgets of the tree walkers of Model/Compile.v suffice:
   the explicit out-of-fuel outcomes of the checker, of SetGlobals and of the
   message walk are never returned for the budget [walk_fuel] that compile uses. *)
From Coq Require Import Lia.
From Soy Require Import Model.Bytes Model.Num Model.Values Model.Outcome Model.Ast Model.MsgId Model.Compile.
From Soy Require Export Proofs.BytesBase.
Open Scope N_scope.

Definition hl := fix hl (l : list node) : nat := match l with [] => O | x :: r => Nat.max (node_height x) (hl r) end.
Definition hm := fix hm (l : list (bstr * node)) : nat := match l with [] => O | (_, x) :: r => Nat.max (node_height x) (hm r) end.

Lemma hl_In c l : In c l -> (node_height c <= hl l)%nat.
Proof.
  induction l as [|x r IH]; cbn [In hl]; [intros []|]. intros [->|H]; [lia|]. specialize (IH H). lia.
Qed.
Lemma hm_In k c l : In (k, c) l -> (node_height c <= hm l)%nat.
Proof.
  induction l as [|[k' x] r IH]; cbn [In hm]; [intros []|]. intros [[= -> ->]|H]; [lia|]. specialize (IH H). lia.
Qed.

Lemma map_values_In ko items c : In c (map_values ko items) -> exists k, In (k, c) items.
Proof.
  unfold map_values. intros H. apply in_flat_map in H. destruct H as (k & _ & H).
  destruct (assoc_s k items) as [v|] eqn:E; [|destruct H]. destruct H as [<-|[]]. eapply assoc_s_in, E.
Qed.

(* the measure that decreases from a node to its children: twice the node_height,
   one less for a ListNode (the bodies of plural cases are wrapped in one) *)
Definition is_list (n : node) : bool := match n with NList _ _ => true | _ => false end.
Definition rank (n : node) : nat := (2 * node_height n - (if is_list n then 1 else 0))%nat.

Lemma height_pos n : (1 <= node_height n)%nat.
Proof. destruct n; cbn [node_height]; lia. Qed.

Lemma rank_le n : (rank n <= 2 * node_height n)%nat.
Proof. unfold rank. lia. Qed.

Lemma rank_lt_walk_fuel n : (rank n < walk_fuel n)%nat.
Proof. unfold walk_fuel. pose proof (rank_le n). lia. Qed.

Ltac bound_children :=
  repeat match goal with
         | H : In _ (_ :: _) |- _ => destruct H as [<-|H]
         | H : In _ (_ ++ _) |- _ => apply in_app_or in H; destruct H as [H|H]
         | H : In _ [] |- _ => destruct H
         | H : In _ (olist ?o) |- _ => destruct o; cbn [olist] in H
         | H : In ?c (map_values _ ?items) |- _ =>
             let k := fresh "k" in apply map_values_In in H; destruct H as (k & H); apply hm_In in H
         | H : In ?c ?l |- _ => apply hl_In in H
         end.

Lemma children_rank ko n c : In c (children ko n) -> (rank c < rank n)%nat.
Proof.
  intros H. pose proof (height_pos c) as Hc. pose proof (rank_le c) as Hr.
  destruct n; cbn [children] in H; try (destruct H; fail);
    bound_children; unfold rank in *; cbn [is_list node_height] in *; fold hl in *; fold hm in *;
    repeat match goal with |- context [if is_list ?x then _ else _] => destruct (is_list x) end; lia.
Qed.

Definition nofuel (r : check_err + tcs) : Prop := r <> inl CKOutOfFuel.

(* a run that ends in an error of its own, or continues with [k] *)
Lemma nofuel_bind (r : check_err + tcs) (k : tcs -> check_err + tcs) :
  nofuel r -> (forall st', nofuel (k st')) -> nofuel (match r with inr st' => k st' | inl e => inl e end).
Proof. intros Hr Hk. destruct r as [e|st']; [exact Hr | apply Hk]. Qed.

Section CheckerFuel.
  Variable ko : korder.
  Variable lk : bstr -> option template.
  Variable params : list bstr.

  Lemma check_seq_nofuel w l : (forall st c, In c l -> nofuel (w st c)) -> forall st, nofuel (check_seq w st l).
  Proof.
    induction l as [|n r IH]; intros Hw st; cbn [check_seq]; [discriminate|].
    apply nofuel_bind; [apply Hw; left; reflexivity | intros st'; apply IH; intros st2 c Hc; apply Hw; right; exact Hc].
  Qed.

  Lemma pop_block_nofuel k st : nofuel (pop_block k st).
  Proof. unfold pop_block, nofuel. destruct (map vb_name _); discriminate. Qed.

  Lemma check_block_nofuel w n : (forall st c, In c (children ko n) -> nofuel (w st c)) -> forall st, nofuel (check_block ko w st n).
  Proof.
    intros Hw st. unfold check_block.
    apply nofuel_bind; [apply check_seq_nofuel, Hw | intros st'; apply pop_block_nofuel].
  Qed.

  Lemma visit_key_nofuel st key : nofuel (visit_key params st key).
  Proof.
    unfold visit_key, nofuel. destruct (bstr_eqb key k_ij); [discriminate|].
    destruct (mark_used key (tc_vars st)); [discriminate|]. destruct (mem_s key params); discriminate.
  Qed.

  Lemma check_call_nofuel st p name alldata data ps : nofuel (check_call lk params st p name alldata data ps).
  Proof.
    unfold check_call, nofuel. destruct (lk name) as [callee|]; [|discriminate].
    destruct (call_param_keys ps); [|discriminate]. destruct (filter _ _); [|discriminate].
    destruct data; [discriminate|]. destruct (filter _ _); discriminate.
  Qed.

  Lemma check_loop_func_nofuel st fname args : check_loop_func st fname args <> Some CKOutOfFuel.
  Proof.
    unfold check_loop_func. destruct (_ || _); [|discriminate].
    destruct args as [|a [|a2 r]]; [discriminate| |destruct a; try discriminate; destruct access; discriminate].
    destruct a; try discriminate. destruct access; [|discriminate]. destruct (existsb _ _); discriminate.
  Qed.

  Lemma check_body_nofuel w n : (forall st c, In c (children ko n) -> nofuel (w st c)) ->
    forall st, nofuel (check_body ko lk params w st n).
  Proof.
    intros Hw st. pose proof (check_block_nofuel w n Hw) as Hb. unfold check_body.
    destruct n; try apply Hb.
    - (* NFunc *)
      pose proof (check_loop_func_nofuel st name args) as Hl.
      destruct (check_loop_func st name args) as [e|]; [intros [= ->]; apply Hl; reflexivity | apply Hb].
    - (* NDataRef *) apply nofuel_bind; [apply visit_key_nofuel | exact Hb].
    - (* NFor *)
      cbn [children] in Hw.
      apply nofuel_bind; [apply Hw; left; reflexivity | intros st1].
      apply nofuel_bind; [apply Hw; right; left; reflexivity | intros st2].
      destruct ifempty; [apply Hw; right; right; left; reflexivity | discriminate].
    - (* NCall *) apply nofuel_bind; [apply check_call_nofuel | exact Hb].
    - (* NLetValue *) destruct (bstr_eqb name k_ij); [discriminate|]. apply nofuel_bind; [apply Hb | discriminate].
    - (* NLetContent *) destruct (bstr_eqb name k_ij); [discriminate|]. apply nofuel_bind; [apply Hb | discriminate].
    - (* NHeaderParam *) discriminate.
  Qed.

  Lemma check_node_nofuel fuel : forall n, (rank n < fuel)%nat -> forall st, nofuel (check_node ko lk params fuel st n).
  Proof.
    induction fuel as [|f IH]; intros n Hr st; [lia|]. cbn [check_node].
    apply check_body_nofuel. intros st' c Hc. apply IH. pose proof (children_rank ko n c Hc). lia.
  Qed.
End CheckerFuel.

Theorem check_template_fuel ko lk t : check_template ko lk t <> Some CKOutOfFuel.
Proof.
  unfold check_template. destruct (check_node _ _ _ _ _ _) as [e|st] eqn:E.
  - intros [= ->]. eapply check_node_nofuel; [apply rank_lt_walk_fuel | exact E].
  - destruct (filter _ _); discriminate.
Qed.

Section GlobalsFuel.
  Variable ko : korder.
  Variable globals : gmap.
  Lemma globals_seq_fuel w l : (forall c, In c l -> w c <> Some GOutOfFuel) -> globals_seq w l <> Some GOutOfFuel.
  Proof.
    induction l as [|n r IH]; intros Hw; cbn [globals_seq]; [discriminate|].
    destruct (w n) as [e|] eqn:E; [intros [= ->]; apply (Hw n (or_introl eq_refl) E)|].
    apply IH. intros c Hc. apply Hw. right. exact Hc.
  Qed.
  Lemma globals_node_fuel fuel : forall n, (rank n < fuel)%nat -> globals_node ko globals fuel n <> Some GOutOfFuel.
  Proof.
    induction fuel as [|f IH]; intros n Hr; [lia|]. cbn [globals_node]. unfold globals_body.
    assert (H : globals_seq (globals_node ko globals f) (children ko n) <> Some GOutOfFuel).
    { apply globals_seq_fuel. intros c Hc. apply IH. pose proof (children_rank ko n c Hc). lia. }
    destruct n; try exact H. destruct (assoc_s name globals); discriminate.
  Qed.
End GlobalsFuel.

Theorem set_globals_template_fuel ko globals t : set_globals_template ko globals t <> Some GOutOfFuel.
Proof. apply globals_node_fuel, rank_lt_walk_fuel. Qed.

(* ProcessMessages: every entry is the result of SetPlaceholdersAndID on a message *)
Section MsgsFuel.
  Variable ns : node -> bstr.
  Variables ko pho : korder.
  Definition from_msg (x : outcome (N * list npart)) : Prop :=
    exists meaning desc body, x = process_msg ns pho meaning desc body.
  Lemma msgs_seq_fuel w l : (forall c x, In c l -> In x (w c) -> from_msg x) -> forall x, In x (msgs_seq w l) -> from_msg x.
  Proof.
    induction l as [|n r IH]; intros Hw x; cbn [msgs_seq]; [intros []|]. intros H. apply in_app_or in H.
    destruct H as [H|H]; [apply (Hw n x (or_introl eq_refl) H)|]. apply IH; [|exact H]. intros c y Hc. apply Hw. right. exact Hc.
  Qed.
  Lemma msgs_node_fuel fuel : forall n, (rank n < fuel)%nat -> forall x, In x (msgs_node ns ko pho fuel n) -> from_msg x.
  Proof.
    induction fuel as [|f IH]; intros n Hr x; [lia|]. cbn [msgs_node]. unfold msgs_body.
    assert (H : In x (msgs_seq (msgs_node ns ko pho f) (children ko n)) -> from_msg x).
    { apply msgs_seq_fuel. intros c y Hc. apply IH. pose proof (children_rank ko n c Hc). lia. }
    destruct n; try exact H. intros [<-|[]]. eexists _, _, _. reflexivity.
  Qed.
End MsgsFuel.

Theorem template_msgs_fuel ns ko pho t x : In x (template_msgs ns ko pho t) -> from_msg ns pho x.
Proof. apply msgs_node_fuel, rank_lt_walk_fuel. Qed.
