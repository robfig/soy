(* C06: the QUANTITATIVE fuel bound for recursive bundles.

   [walk_cap cf d] (Model/InterpSafety.v) is the walker that refuses to walk a
   node at call depth above [d] ([Err e_capped]).  Three facts:

   1. walk_cap_fuel:    started at call depth k <= d on a node n with
                          tree_height n + reg_height * (d - k) <= fuel
                        the capped walker never runs out of fuel (and never
                        crashes or diverges): the budget
                        (tallest template) x (d + 1) pays for every run that
                        stays within d nested calls, whatever the call graph.
   2. walk_cap_approx:  the capped walker reports the cap or IS the walker
                        (same outcome, same final state).
   3. walk_cap_fuel_monotone / walk_cap_depth_monotone: an answer of the capped
                        walker is stable under more fuel and under a higher cap,
                        so [run_depth_le] (Spec/Safety.v) does not depend on the
                        budget that witnesses it.

   Together (walk_fuel_depth, render_total_depth): a run whose call depth is
   bounded by d answers -- result, error value or value outside the float model
   -- with every fuel >= reg_height * (d + 1), and the answer is the same for all
   of them. *)
From Coq Require Import Lia ZifyBool.
From Soy Require Import Model.Bytes Model.Num Model.Values Model.Outcome Model.Ast
  Model.Escape Model.Directives Model.Print Generated.Tables Model.Interp Model.InterpSafety
  Spec.Safety Proofs.ValueProofs Proofs.InterpLogic Proofs.InterpSub Proofs.InterpGuard Proofs.InterpRel
  Proofs.SafetyPure Proofs.SafetyNodes Proofs.SafetyProofs Proofs.SafetyFuel Proofs.SafetyMono.
Open Scope N_scope.

Lemma walk_cap_S cf d f n : walk_cap cf d (S f) n = walk_body cf (cap d (walk_cap cf d f)) n.
Proof. reflexivity. Qed.

(* 1. a unary walker logic with a precondition on the call depth *)

Definition Rdepth (a b : mstate) : Prop := depth_ a = depth_ b.

Lemma depth_rel_conditions : rel_conditions Rdepth allowed_nf.
Proof.
  constructor; unfold Rdepth; intros;
    first [ reflexivity | exact I | congruence | (cbn; assumption) ].
Qed.

Section Depth.
Variable k : nat.

(* started at call depth k: ends at call depth k, without crash, divergence or fuel exhaustion *)
Definition dspec {A} (m : M A) : Prop :=
  forall st r st', depth_ st = k -> m st = (r, st') ->
    depth_ st' = k /\ match classify r with inl _ => True | inr e => allowed_nf e end.

Lemma rel_dspec {A} (m : M A) : rel_spec Rdepth allowed_nf m -> dspec m.
Proof.
  intros H st r st' Hk Hrun. destruct (H _ _ _ Hrun) as [HR Ha].
  split; [unfold Rdepth in HR; congruence | exact Ha].
Qed.

Lemma dspec_bind {A B} (m : M A) (f : A -> M B) : dspec m -> (forall x, dspec (f x)) -> dspec (mbind m f).
Proof.
  intros Hm Hf st r st2 Hk Hb.
  destruct (mbind_inv _ _ _ _ _ Hb) as [(x & st1 & H1 & H2) | (e & H1 & ->)].
  - destruct (Hm _ _ _ Hk H1) as [Hk1 _]. exact (Hf x _ _ _ Hk1 H2).
  - destruct (Hm _ _ _ Hk H1) as [Hk1 Ha]. split; [exact Hk1|].
    rewrite classify_of_fault in Ha. rewrite classify_of_fault. exact Ha.
Qed.

Lemma dspec_eval (w : node -> M value) e : dspec (w e) -> dspec (eval w e).
Proof.
  intros Hw st r st' Hk H. rewrite eval_eq in H.
  destruct (w e st) as [r1 st2] eqn:Hrun. cbn [fst snd] in H.
  destruct (Hw _ _ _ Hk Hrun) as [Hk2 Ha].
  destruct (classify r1) as [x|f]; inversion H; subst.
  - split; [exact Hk2 | exact I].
  - split; [exact Hk2|]. rewrite classify_of_fault. exact Ha.
Qed.

Lemma dspec_block (w : node -> M value) body : dspec (w body) -> dspec (render_block w body).
Proof.
  intros Hw st r st' Hk H. rewrite render_block_eq in H.
  destruct (w body (buf_pushed st)) as [r1 st2] eqn:Hrun. cbn [fst snd] in H.
  assert (Hk0 : depth_ (buf_pushed st) = k) by exact Hk.
  destruct (Hw _ _ _ Hk0 Hrun) as [Hk2 Ha].
  destruct (classify r1) as [x|f].
  - cbn zeta in H. destruct (bufs st2) as [|buf rest]; inversion H; subst; cbn [classify].
    + split; [exact Hk2 | exact I].
    + split; [exact Hk2 | exact I].
  - inversion H; subst. split; [exact Hk2|]. rewrite classify_of_fault. exact Ha.
Qed.

Lemma dspec_modify f : (forall st, depth_ (f st) = depth_ st) -> dspec (modify f).
Proof. intros Hf. apply rel_dspec. apply rel_modify. intros st. unfold Rdepth. symmetry. apply Hf. Qed.

Lemma dspec_ret {A} (x : A) : dspec (ret x).
Proof. apply rel_dspec. apply (rel_ret _ _ depth_rel_conditions). Qed.

Theorem depth_logic_sub : walker_logic_sub (@dspec) (@rel_pure_ok allowed_nf).
Proof.
  pose proof depth_rel_conditions as C.
  constructor.
  - intros A m m' Heq Hm st r st' Hk H. rewrite <- Heq in H. eapply Hm; eauto.
  - intros. apply dspec_ret.
  - intros. apply rel_dspec. apply (rel_fail _ _ C).
  - intros. apply rel_dspec. apply (rel_lift _ _ C). assumption.
  - intros. apply dspec_bind; assumption.
  - intros ae. apply dspec_modify. intros st. reflexivity.
  - intros. apply rel_dspec. apply (rel_write _ _ C).
  - intros. apply rel_dspec. apply (rel_set _ _ C).
  - intros. apply rel_dspec. apply (rel_lookup _ _ C).
  - intros. apply rel_dspec. apply (rel_fresh_list _ _ C).
  - intros. apply rel_dspec. apply (rel_fresh_list_or_nil _ _ C).
  - intros. apply rel_dspec. apply (rel_fresh_map _ _ C).
  - intros B f Hf st r st' Hk H. change ((st <-- get ;;; f (mode st)) st) with (f (mode st) st) in H. eapply Hf; eauto.
  - intros B f Hf st r st' Hk H. change ((st <-- get ;;; f (ctx st)) st) with (f (ctx st) st) in H. eapply Hf; eauto.
  - intros m Hm. apply dspec_bind; [apply dspec_modify; intros st; reflexivity|]. intros _.
    apply dspec_bind; [exact Hm|]. intros _.
    apply dspec_bind; [apply dspec_modify; intros st; reflexivity|]. intros _. apply dspec_ret.
  - apply dspec_eval.
  - apply dspec_block.
Qed.
End Depth.

Section Budget.
Variable cf : cfg.
Variable d : nat.
Let H := reg_height (c_reg cf).

Theorem walk_cap_fuel : forall fuel n k,
  (k <= d)%nat -> (tree_height n + H * (d - k) <= fuel)%nat -> dspec k (walk_cap cf d fuel n).
Proof.
  induction fuel as [|fuel IH]; intros n k Hk Hf.
  - pose proof (height_pos n). remember (H * (d - k))%nat as X. lia.
  - rewrite walk_cap_S.
    apply (phi_walk_body_sub cf _ _ (depth_logic_sub k) nf_pure_sites_sub).
    + apply dspec_modify. intros st. reflexivity.
    + intros n' Hin st r st' Hst Hrun. unfold cap in Hrun.
      assert (E : Nat.leb (depth_ st) d = true) by (apply Nat.leb_le; lia).
      rewrite E in Hrun. refine (IH n' k Hk _ st r st' Hst Hrun).
      pose proof (height_sub n n' Hin). remember (H * (d - k))%nat as X. lia.
    + intros callee cd Hc st r st' Hst Hrun.
      rewrite call_enter_eq in Hrun. cbn zeta in Hrun.
      assert (Hde : depth_ (entered st callee cd) = S k) by (cbn; congruence).
      assert (Hleft : forall s, depth_ (left st s) = k) by (intros s; cbn; exact Hst).
      unfold cap in Hrun. rewrite Hde in Hrun.
      destruct (Nat.leb (S k) d) eqn:E.
      * apply Nat.leb_le in E.
        destruct (walk_cap cf d fuel (t_node callee) (entered st callee cd)) as [r1 st2] eqn:Hin.
        cbn [fst snd] in Hrun.
        assert (Hb : (tree_height (t_node callee) + H * (d - S k) <= fuel)%nat).
        { destruct n; cbn [callee_of] in Hc; try discriminate.
          apply find_template_some in Hc as [Hmem _].
          pose proof (reg_template_height_le cf _ Hmem) as Hh. fold H in Hh.
          pose proof (height_pos (NCall p name alldata data params)).
          replace (d - k)%nat with (S (d - S k)) in Hf by lia. nia. }
        destruct (IH (t_node callee) (S k) E Hb _ _ _ Hde Hin) as [_ Ha].
        inversion Hrun; subst. split; [apply Hleft|].
        destruct (classify r1) as [x|e]; [exact I|]. rewrite classify_of_fault. exact Ha.
      * cbn [fst snd classify] in Hrun. inversion Hrun; subst. split; [apply Hleft | exact I].
Qed.

(* from call depth 0, on a tree no taller than the tallest template *)
Corollary walk_cap_fuel_top fuel n st :
  depth_ st = 0%nat -> (tree_height n <= H)%nat -> (H * S d <= fuel)%nat ->
  nf (fst (walk_cap cf d fuel n st)).
Proof.
  intros Hst Hn Hf.
  assert (Hb : (tree_height n + H * (d - 0) <= fuel)%nat) by nia.
  destruct (walk_cap cf d fuel n st) as [r st'] eqn:E.
  destruct (walk_cap_fuel fuel n 0%nat (Nat.le_0_l d) Hb st r st' Hst E) as [_ Ha].
  cbn [fst]. destruct r; cbn in Ha |- *; tauto.
Qed.
End Budget.

(* 2. the capped walker reports the cap or is the walker *)

Definition capx {A} (m1 m2 : M A) : Prop := stops (FErr e_capped) m1 m2.

(* a cap on the left only, or a lower cap on the left *)
Lemma capx_cap d (w1 w2 : node -> M value) :
  (forall n, capx (w1 n) (w2 n)) -> forall n, capx (cap d w1 n) (w2 n).
Proof. intros Hw n st. unfold cap. destruct (Nat.leb (depth_ st) d); [apply Hw | left; reflexivity]. Qed.

Lemma capx_cap_le d d' (w1 w2 : node -> M value) : (d <= d')%nat ->
  (forall n, capx (w1 n) (w2 n)) -> forall n, capx (cap d w1 n) (cap d' w2 n).
Proof.
  intros Hd Hw n st. unfold cap. destruct (Nat.leb_spec (depth_ st) d) as [Hl|]; [|left; reflexivity].
  destruct (Nat.leb_spec (depth_ st) d'); [apply Hw | lia].
Qed.

Theorem walk_cap_approx cf d : forall f n, capx (walk_cap cf d f n) (walk cf f n).
Proof.
  induction f as [|f IH]; intros n.
  - apply stops_refl.
  - rewrite walk_cap_S, walk_S. apply (walk_body_rel cf _ _ (stops_logic _)); apply capx_cap; exact IH.
Qed.

(* a higher cap: the same, or the lower cap was hit *)
Theorem walk_cap_depth_le cf d d' : (d <= d')%nat -> forall f n, capx (walk_cap cf d f n) (walk_cap cf d' f n).
Proof.
  intros Hd. induction f as [|f IH]; intros n.
  - apply stops_refl.
  - rewrite !walk_cap_S. apply (walk_body_rel cf _ _ (stops_logic _)); apply capx_cap_le; assumption.
Qed.

(* 3. more fuel: the same, or the smaller budget was exhausted *)
Lemma approx_cap d (w1 w2 : node -> M value) :
  (forall n, approx (w1 n) (w2 n)) -> forall n, approx (cap d w1 n) (cap d w2 n).
Proof. intros Hw n st. unfold cap. destruct (Nat.leb (depth_ st) d); [apply Hw | right; reflexivity]. Qed.

Theorem walk_cap_fuel_le cf d : forall f f' n, (f <= f')%nat -> approx (walk_cap cf d f n) (walk_cap cf d f' n).
Proof.
  induction f as [|f IH]; intros f' n Hle; [intros st; left; reflexivity|]. destruct f' as [|f']; [lia|].
  rewrite !walk_cap_S. apply (walk_body_rel cf _ _ (stops_logic _)); apply approx_cap; intros c; apply IH; lia.
Qed.

Theorem walk_cap_fuel_monotone cf d f f' n st :
  (f <= f')%nat -> fst (walk_cap cf d f n st) <> OutOfFuel -> walk_cap cf d f' n st = walk_cap cf d f n st.
Proof. intros Hle Hr. destruct (walk_cap_fuel_le cf d f f' n Hle st) as [Ho|He]; [contradiction | symmetry; exact He]. Qed.

Theorem walk_cap_depth_monotone cf d d' f n st :
  (d <= d')%nat -> fst (walk_cap cf d f n st) <> Err e_capped -> walk_cap cf d' f n st = walk_cap cf d f n st.
Proof. intros Hle Hr. destruct (walk_cap_depth_le cf d d' Hle f n st) as [Ho|He]; [contradiction | symmetry; exact He]. Qed.

(* the three facts in the form Properties/C06.v states them *)
Theorem walk_cap_fuel_nf cf d fuel n k st r st' :
  (k <= d)%nat -> (tree_height n + reg_height (c_reg cf) * (d - k) <= fuel)%nat ->
  depth_ st = k -> walk_cap cf d fuel n st = (r, st') ->
  depth_ st' = k /\ nf r.
Proof.
  intros Hk Hf Hst Hrun.
  destruct (walk_cap_fuel cf d fuel n k Hk Hf st r st' Hst Hrun) as [H1 H2].
  split; [exact H1|]. destruct r; cbn in H2 |- *; tauto.
Qed.

Theorem walk_cap_monotone cf d d' f f' n st :
  (d <= d')%nat -> (f <= f')%nat -> is_answer (fst (walk_cap cf d f n st)) ->
  walk_cap cf d' f' n st = walk_cap cf d f n st.
Proof.
  intros Hd Hf [Hoof Hcap].
  rewrite <- (walk_cap_fuel_monotone cf d f f' n st Hf Hoof) in Hcap |- *.
  apply walk_cap_depth_monotone; assumption.
Qed.

(* a run that stays within d nested calls answers with fuel >= reg_height * (d+1);
   the answer (outcome and final state) is the capped run's, hence one and the same for
   every such fuel *)
Theorem walk_fuel_depth cf d n st fuel :
  run_depth_le cf d n st ->
  depth_ st = 0%nat -> (tree_height n <= reg_height (c_reg cf))%nat ->
  (reg_height (c_reg cf) * S d <= fuel)%nat ->
  nf (fst (walk cf fuel n st)) /\
  forall fuel', (reg_height (c_reg cf) * S d <= fuel')%nat -> walk cf fuel' n st = walk cf fuel n st.
Proof.
  intros [f [Hoof Hcap]] Hst Hn Hfuel.
  assert (Hall : forall g, (reg_height (c_reg cf) * S d <= g)%nat ->
                   walk cf g n st = walk_cap cf d f n st /\ nf (fst (walk cf g n st))).
  { intros g Hg.
    pose proof (walk_cap_fuel_top cf d g n st Hst Hn Hg) as Hnf.
    assert (Hg_noof : fst (walk_cap cf d g n st) <> OutOfFuel).
    { intros E. rewrite E in Hnf. exact Hnf. }
    (* both budgets agree with the larger of the two *)
    pose proof (walk_cap_fuel_monotone cf d f (Nat.max f g) n st (Nat.le_max_l f g) Hoof) as E1.
    pose proof (walk_cap_fuel_monotone cf d g (Nat.max f g) n st (Nat.le_max_r f g) Hg_noof) as E2.
    assert (E : walk_cap cf d g n st = walk_cap cf d f n st) by congruence.
    destruct (walk_cap_approx cf d g n st) as [Ho|He].
    - rewrite E in Ho. contradiction.
    - split; [congruence|]. rewrite <- He. exact Hnf. }
  destruct (Hall fuel Hfuel) as [E Hnf]. split; [exact Hnf|].
  intros fuel' Hf'. destruct (Hall fuel' Hf') as [E' _]. congruence.
Qed.

(* Renderer.Execute on ANY bundle (recursive or not): if the run of the entry template stays within d
   nested calls, fuel >= (tallest template) x (d + 1) gives a result, an error value, or a value outside
   the float model -- and the whole render result is the same for every such fuel *)
Theorem render_total_depth cf d fuel name data_id data cl bl first_id t :
  reg_ok (c_reg cf) = true ->
  find_template (r_templates (c_reg cf)) name = Some t ->
  run_depth_le cf d (t_node t)
    (init_state (sc_enter (new_scope data_id data)) (entry_mode (t_ns_autoescape t)) name cl bl first_id) ->
  (reg_height (c_reg cf) * S d <= fuel)%nat ->
  match rr_outcome (render cf fuel name data_id data cl bl first_id) with
  | Ok _ | Err _ | OutOfModel => True
  | _ => False
  end
  /\ forall fuel', (reg_height (c_reg cf) * S d <= fuel')%nat ->
       render cf fuel' name data_id data cl bl first_id = render cf fuel name data_id data cl bl first_id.
Proof.
  intros Hok Hfind Hrun Hfuel.
  pose proof (find_template_some _ _ _ Hfind) as [Hin _].
  pose proof (reg_template_height_le cf t Hin) as Hh.
  destruct (walk_fuel_depth cf d (t_node t) _ fuel Hrun eq_refl Hh Hfuel) as [Hnf Hsame].
  split.
  - pose proof (render_no_escape_lemma cf fuel name data_id data cl bl first_id Hok) as Hne.
    destruct (render_of_nf_walk cf fuel name data_id data cl bl first_id t Hfind Hnf) as [Hr|[m Hm]].
    + destruct (rr_outcome _); cbn in *; tauto.
    + rewrite Hm in Hne. destruct Hne.
  - intros fuel' Hf'. unfold render. rewrite Hfind. rewrite (Hsame fuel' Hf'). reflexivity.
Qed.

(* every run that answers has a call depth: a run with fuel f cannot nest more than f calls, so the
   walker capped at d >= f - 1 is the walker (started at call depth 0) unless the fuel runs out *)

Definition drel (k : nat) {A} (m1 m2 : M A) : Prop :=
  forall st, depth_ st = k ->
    fst (m2 st) = OutOfFuel \/ (m1 st = m2 st /\ depth_ (snd (m2 st)) = k).

Lemma drel_same k {A} (m : M A) : (forall st, depth_ (snd (m st)) = depth_ st) -> drel k m m.
Proof. intros H st Hk. right. split; [reflexivity | rewrite H; exact Hk]. Qed.

Lemma drel_of_rel k {A} (m : M A) : rel_spec Rdepth allowed_nf m -> drel k m m.
Proof.
  intros H. apply drel_same. intros st. destruct (m st) as [r st'] eqn:E.
  destruct (H _ _ _ E) as [HR _]. symmetry. exact HR.
Qed.

Lemma drel_bind k {A B} (m1 m2 : M A) (f1 f2 : A -> M B) :
  drel k m1 m2 -> (forall x, drel k (f1 x) (f2 x)) -> drel k (mbind m1 f1) (mbind m2 f2).
Proof.
  intros Hm Hf st Hk. unfold mbind. destruct (Hm st Hk) as [Ho|[He Hd]].
  - left. destruct (m2 st) as [r s]. cbn [fst] in Ho. subst r. reflexivity.
  - rewrite He. destruct (m2 st) as [[x|e|e| | | ] s]; cbn [snd] in Hd;
      try (right; split; [reflexivity | exact Hd]).
    apply Hf. exact Hd.
Qed.

Lemma drel_logic k : walker_logic_r (fun _ => true) (@drel k) (@drel (S k) value) (fun _ _ => True).
Proof.
  pose proof depth_rel_conditions as C.
  constructor; intros.
  - intros st Hk. rewrite <- H, <- H0. apply H1. exact Hk.
  - apply drel_of_rel. apply (rel_ret _ _ C).
  - apply drel_of_rel. apply (rel_fail _ _ C).
  - apply drel_same. reflexivity.
  - apply drel_bind; assumption.
  - apply drel_same. reflexivity.
  - apply drel_same. reflexivity.
  - apply drel_of_rel. apply (rel_write _ _ C).
  - apply drel_of_rel. apply (rel_set _ _ C).
  - apply drel_of_rel. apply (rel_lookup _ _ C).
  - apply drel_of_rel. apply (rel_fresh_list _ _ C).
  - apply drel_of_rel. apply (rel_fresh_list_or_nil _ _ C).
  - apply drel_of_rel. apply (rel_fresh_map _ _ C).
  - intros st Hk. apply (H (mode st) st Hk).
  - intros st Hk. apply (H (ctx st) st Hk).
  - (* scoped *)
    apply drel_bind; [apply drel_same; reflexivity|]. intros _.
    apply drel_bind; [assumption|]. intros _.
    apply drel_bind; [apply drel_same; reflexivity|]. intros _.
    apply drel_of_rel. apply (rel_ret _ _ C).
  - (* eval *)
    intros st Hk. rewrite !eval_eq. destruct (H st Hk) as [Ho|[He Hd]].
    + left. rewrite Ho. reflexivity.
    + right. rewrite He. split; [reflexivity|].
      destruct (w2 e st) as [[x|e0|e0| | | ] s]; cbn [fst snd classify of_fault] in *; exact Hd.
  - (* block *)
    intros st Hk. rewrite !render_block_eq. destruct (H (buf_pushed st) Hk) as [Ho|[He Hd]].
    + left. rewrite Ho. reflexivity.
    + right. rewrite He. split; [reflexivity|].
      destruct (w2 body (buf_pushed st)) as [[x|e0|e0| | | ] s]; cbn [fst snd classify of_fault] in *; try exact Hd.
      destruct (bufs s); cbn [snd]; exact Hd.
  - (* enter: the callee runs one level deeper; the caller's depth is back afterwards *)
    intros st Hk. rewrite !call_enter_eq. cbn zeta.
    assert (Hke : depth_ (entered st callee cd) = S k) by (cbn; congruence).
    destruct (H (entered st callee cd) Hke) as [Ho|[He Hd]].
    + left. cbn [fst]. rewrite Ho. reflexivity.
    + right. rewrite He. split; [reflexivity|]. cbn. exact Hk.
Qed.

Theorem walk_cap_full cf d : forall f n k, (k + f <= S d)%nat -> drel k (walk_cap cf d f n) (walk cf f n).
Proof.
  induction f as [|f IH]; intros n k Hle.
  - intros st Hk. left. reflexivity.
  - rewrite walk_cap_S, walk_S. apply (walk_body_rel cf _ _ (drel_logic k)).
    + intros c st Hk. unfold cap. rewrite Hk.
      assert (E : Nat.leb k d = true) by (apply Nat.leb_le; lia). rewrite E.
      apply (IH c k ltac:(lia) st Hk).
    + intros c st Hk. unfold cap. rewrite Hk.
      destruct (Nat.leb (S k) d) eqn:E.
      * apply (IH c (S k) ltac:(lia) st Hk).
      * apply Nat.leb_gt in E. destruct f as [|f']; [left; reflexivity | lia].
Qed.

(* an answer obtained with fuel f from call depth 0 is an answer of the walker capped at f: the run stays
   within f nested calls.  ([e_capped] is the instrument's own marker, not an error text of the walker.) *)
Theorem walk_answer_has_depth cf f n st :
  depth_ st = 0%nat -> is_answer (fst (walk cf f n st)) -> run_depth_le cf f n st.
Proof.
  intros Hst [Hoof Hcap]. exists f.
  destruct (walk_cap_full cf f f n 0%nat ltac:(lia) st Hst) as [Ho|[He _]]; [contradiction|].
  rewrite He. split; assumption.
Qed.
