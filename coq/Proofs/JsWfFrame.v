(* C14, token grammar: runs of the recogniser inside an expression are local --
   they never look below the frames they pushed themselves, so a run from the
   empty stack can be replayed on top of any stack. *)
From Soy Require Import Model.Bytes Model.JsGen Spec.JsSyntax Spec.JsShape Proofs.JsWfFlag.
Open Scope N_scope.

Lemma step_local md m s t m' s' d r :
  emode m = true -> forallb eframe s = true -> js_step md m s t = Some (m', s', d) ->
  emode m' = true /\ forallb eframe s' = true /\ d = [] /\ js_step md m (s ++ r) t = Some (m', s' ++ r, []).
Proof.
  intros Hm Hs H. destruct m; try discriminate Hm; cbn [js_step] in *; unfold step_want, step_have, cfg, seq1 in *.
  5:{ (* MSeq [:] None (MWant false) *)
    destruct ps as [|p ps]; [discriminate Hm|]. destruct p as [t'| |]; try discriminate Hm.
    destruct t' as [x|k x|x| |q|nlt]; try discriminate Hm. destruct q; try discriminate Hm.
    destruct ps; [|discriminate Hm]. destruct push; [discriminate Hm|]. destruct m; try discriminate Hm. destruct closable; [discriminate Hm|].
    destruct (pat_match (PT (TP PColon)) t); [|discriminate H]. inversion H; subst. cbn. rewrite ?Hs. auto. }
  (* the other modes: a finite case distinction on the token and the top frame *)
  all: crack H; cbn in Hs |- *; try discriminate Hs; rewrite ?Hs; auto.
Qed.

Lemma run_local md ts : forall m s m' s' d r,
  emode m = true -> forallb eframe s = true -> js_run md ts m s = Some (m', s', d) ->
  d = [] /\ js_run md ts m (s ++ r) = Some (m', s' ++ r, []).
Proof.
  induction ts as [|t ts IH]; intros m s m' s' d r Hm Hs H; cbn [js_run] in *.
  - inversion H; subst. auto.
  - destruct (js_step md m s t) as [[[m1 s1] d1]|] eqn:E; [|discriminate].
    destruct (step_local md m s t m1 s1 d1 r Hm Hs E) as (Hm1 & Hs1 & -> & E').
    rewrite E'. destruct (js_run md ts m1 s1) as [[[m2 s2] d2]|] eqn:E2; [|discriminate]. inversion H; subst.
    destruct (IH _ _ _ _ _ r Hm1 Hs1 E2) as (-> & E2'). rewrite E2'. auto.
Qed.

Lemma step_want_cl cl s t r : step_want false s t = Some r -> step_want cl s t = Some r.
Proof.
  unfold step_want. destruct t as [x|k x|x| |p|nlt]; auto. destruct p; auto; discriminate.
Qed.

(* an expression: from "operand expected" to "operand seen" on the empty stack *)
Definition expr_toks (md : bool) (ts : list jstoken) (i : bool) : Prop :=
  js_run md ts (MWant false) [] = Some (MHave i, [], []).

Lemma expr_toks_run md ts i cl s : expr_toks md ts i -> js_run md ts (MWant cl) s = Some (MHave i, s, []).
Proof.
  unfold expr_toks. intro H.
  destruct (run_local md ts (MWant false) [] (MHave i) [] [] s eq_refl eq_refl H) as (_ & H'). cbn [app] in H'.
  destruct ts as [|t ts]; [discriminate H|]. cbn [js_run js_step] in *.
  destruct (step_want false s t) as [[[m1 s1] d1]|] eqn:E; [|discriminate H'].
  rewrite (step_want_cl cl s t _ E). exact H'.
Qed.
