(* C11 x C04: the walker with a message bundle (Model/MsgParts.v walk_b) IS the walker of Model/Interp.v on
   code without {msg} and without {call} -- the SAME result and the SAME state, not equality up to the cuts
   of the Write calls -- for every fuel, every state, every bundle and every plural selector.  This is what
   lets C04's statement simulation (stated for [walk] and an exact relation on states) speak about the
   placeholders of a translated message, which soyhtml renders through [walk_b].

   Proof: [walk_body] is parametric in its recursive call (Proofs/InterpRel.v) for the relation "equal
   on every state"; the premise about the templates of the registry (needed for {call}) is discharged by
   running the parametricity lemma in a configuration whose registry has no templates, which is the same
   walker on call-free code.  The argument is stated once for any guard ([walk_b_is_walk_on]); Proofs/MsgWalkEqCalls.v
   uses it again with calls allowed over a registry without {msg}. *)
From Coq Require Import List Lia Bool.
From Soy Require Import Model.Bytes Model.Num Model.Values Model.Outcome Model.Ast
  Model.Escape Model.Directives Model.Print Generated.Tables Model.Interp Model.MsgParts
  Proofs.InterpLogic Proofs.InterpGuard Proofs.InterpRel Proofs.InterpExtProofs.
Import ListNotations.
Open Scope N_scope.

(* no {call}; no {msg} other than the walker's own synthetic message node for the body of a plural case *)
Definition msgfree_g (n : node) : bool :=
  match n with
  | NCall _ _ _ _ _ => false
  | NMsg _ id m d _ => (id =? 0) && match m, d with [], [] => true | _, _ => false end
  | _ => true
  end.
Definition msgfree (n : node) : bool := deep msgfree_g n.

Lemma same_logic_g g : walker_logic_r g (@same) (@same value) (fun _ _ => True).
Proof.
  constructor; intros; try apply same_refl.
  - intros st. rewrite <- H, <- H0. apply H1.
  - apply same_bind; assumption.
  - intros st. apply (H (mode st) st).
  - intros st. apply (H (ctx st) st).
  - apply same_bind; [apply same_refl|]. intros _.
    apply same_bind; [assumption|]. intros _. apply same_refl.
  - intros st. rewrite !eval_eq, (H st). reflexivity.
  - intros st. rewrite !render_block_eq, (H (buf_pushed st)). reflexivity.
  - intros st. rewrite !call_enter_eq. cbn zeta. rewrite (H (entered st callee cd)). reflexivity.
Qed.

Section WalkEq.
Variable cf : cfg.

(* the same configuration with no template in the registry *)
Definition noreg : cfg :=
  {| c_reg := {| r_templates := []; r_sources := r_sources (c_reg cf); r_files := r_files (c_reg cf) |};
     c_ij := c_ij cf; c_oblig := c_oblig cf; c_msgs := c_msgs cf |}.

Lemma print_dirs_noreg w l : print_dirs noreg w l = print_dirs cf w l.
Proof. reflexivity. Qed.

Variable plural_index : Z -> nat.
Variable bd : bundle.

(* The argument, for any guard [g] that admits no catalogue message and any configuration [cf'] that runs g-nodes as
   [cf] does and whose templates are g-code: [walk_body] is parametric in its recursive call for "equal on every
   state", so the two walkers agree at fuel f+1 once they agree at fuel f on g-code, the callees included. *)
Section Guard.
Variable cf' : cfg.
Variable g : node -> bool.
Hypothesis g_msg : forall p id m d b, g (NMsg p id m d b) = true -> id = 0.
Hypothesis g_synth : forall p l, g (NMsg p 0 [] [] l) = true.
Hypothesis g_body : forall w n, g n = true -> walk_body cf' w n = walk_body cf w n.
Hypothesis g_reg : forall callee, In callee (r_templates (c_reg cf')) -> deep g (t_node callee) = true.

Theorem walk_b_is_walk_on : forall fuel n, deep g n = true ->
  forall st, walk_b cf plural_index bd fuel n st = walk cf fuel n st.
Proof.
  induction fuel as [|f IH]; intros n Hn st; [reflexivity|].
  pose proof (deep_g g n Hn) as Hg. cbn [walk_b walk].
  transitivity (walk_body cf (walk_b cf plural_index bd f) n st).
  - destruct n; try reflexivity. rewrite (g_msg _ _ _ _ _ Hg). reflexivity.
  - rewrite <- !(g_body _ n Hg).
    apply (rphi_walk_body cf' g (@same) (@same value) (fun _ _ => True)
             (same_logic_g g) same_pure_sites g_synth _ _); [| |exact Hn].
    + intros n' Hn' st'. apply IH, Hn'.
    + intros callee Hin st'. apply IH, g_reg, Hin.
Qed.
End Guard.

(* THE LEMMA: on message-free, call-free code the walker with a bundle is the walker.  The premise about the
   templates of the registry is discharged in [noreg], which runs call-free code as [cf] does. *)
Theorem walk_b_is_walk : forall fuel n, msgfree n = true ->
  forall st, walk_b cf plural_index bd fuel n st = walk cf fuel n st.
Proof.
  apply (walk_b_is_walk_on noreg msgfree_g).
  - intros p id m d b H. cbn [msgfree_g] in H. apply andb_true_iff in H. apply N.eqb_eq, H.
  - reflexivity.
  - intros w n Hg. unfold walk_body. f_equal. destruct n; try reflexivity; discriminate.
  - intros callee [].
Qed.

End WalkEq.
