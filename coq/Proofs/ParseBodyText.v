(* C15, parser half: what itemList / textOrTag (Model/Parser.v) see of the item stream -- reading an item,
   skipping the comments in front of one, stopping at EOF -- and what the Spec's [normalize] makes of a piece of
   text as the scanner sends it.  The loop itself, for every until-set: Proofs/ParseTemplate.v. *)
From Soy Require Import Model.Bytes Model.Ast Model.Token Model.Parser Generated.Tables Spec.Text Proofs.RawTextProofs
  Proofs.ExprParserRules Proofs.BodyTextSpec Proofs.LexBodyText.
From Coq Require Import Lia.
Open Scope N_scope.

Definition is_comment (t : tok) : Prop := t_typ t = pit_Comment.

Definition raw_text_of (n : node) : bstr := match n with NRawText _ v => v | _ => [] end.
Definition is_raw (n : node) : Prop := match n with NRawText _ _ => True | _ => False end.

Definition flag (pre : list tok) : bool := match pre with [] => false | _ => true end.

Lemma c_next_stream s t l : stream (c_p s) = t :: l -> inv (c_p s) ->
  exists s1, c_next s = COk t s1 /\ stream (c_p s1) = l /\ inv (c_p s1) /\
             stream (c_p (c_backup s1)) = t :: l /\ inv (c_p (c_backup s1)).
Proof.
  intros Hs Hi. destruct (next_spec _ _ _ Hs Hi) as (st1 & Hn & Hs1 & Hi1 & Hsb & Hib).
  exists (set_p s st1). unfold c_next. assert (E : (3 <=? p_peek (c_p s))%nat = false) by (unfold inv in Hi; apply Nat.leb_gt; lia).
  rewrite E, Hn. split; [reflexivity|]. cbn [c_p set_p c_backup]. auto.
Qed.

Lemma skip_non lf' token s : t_typ token <> pit_Comment -> skip_comments (S lf') token s = COk token s.
Proof. intros H. cbn [skip_comments]. unfold tis. apply N.eqb_neq in H. rewrite H. reflexivity. Qed.

Lemma skip_run : forall pre n c s t l, t_typ c = pit_Comment -> Forall is_comment pre -> t_typ t <> pit_Comment ->
  stream (c_p s) = pre ++ t :: l -> inv (c_p s) -> (length pre + 2 <= n)%nat ->
  exists s', skip_comments n c s = COk t s' /\ stream (c_p s') = l /\ inv (c_p s').
Proof.
  induction pre as [|c' pre IH]; intros n c s t l Hc Hpre Ht Hs Hi Hn; (destruct n as [|n]; [lia|]); cbn [skip_comments]; unfold tis at 1; rewrite Hc, N.eqb_refl.
  - cbn [app] in Hs. destruct (c_next_stream s t l Hs Hi) as (s1 & Hnx & Hs1 & Hi1 & _). rewrite Hnx. cbn [cbind].
    destruct n as [|n]; [cbn in Hn; lia|]. rewrite skip_non by exact Ht. eauto.
  - cbn [app] in Hs. destruct (c_next_stream s c' _ Hs Hi) as (s1 & Hnx & Hs1 & Hi1 & _). rewrite Hnx. cbn [cbind].
    inversion Hpre; subst. apply (IH n c' s1 t l); auto. cbn in Hn; lia.
Qed.

(* the head of an iteration of itemList: the item read, and the one textOrTag looks at once it has skipped the
   comments [pre]; the first item is a comment exactly when there are any *)
Lemma skip_pre lf pre t l s : Forall is_comment pre -> t_typ t <> pit_Comment ->
  stream (c_p s) = pre ++ t :: l -> inv (c_p s) -> (length pre + 2 <= lf)%nat ->
  exists token0 s1 s2, c_next s = COk token0 s1 /\ skip_comments lf token0 s1 = COk t s2 /\
    tis token0 pit_Comment = flag pre /\ stream (c_p s2) = l /\ inv (c_p s2).
Proof.
  intros Hpre Ht Hs Hi Hlf. destruct pre as [|c pre]; cbn [app] in Hs.
  - destruct (c_next_stream s t l Hs Hi) as (s1 & Hn & Hs1 & Hi1 & _). exists t, s1, s1.
    destruct lf as [|lf']; [lia|]. rewrite (skip_non lf' t s1 Ht). unfold tis. apply N.eqb_neq in Ht. rewrite Ht. auto.
  - destruct (c_next_stream s c _ Hs Hi) as (s1 & Hn & Hs1 & Hi1 & _). inversion Hpre as [|? ? Hc Hpre']; subst.
    destruct (skip_run pre lf c s1 t l Hc Hpre' Ht Hs1 Hi1 ltac:(cbn in Hlf; lia)) as (s2 & Hsk & Hs2 & Hi2).
    exists c, s1, s2. unfold tis. rewrite Hc. auto.
Qed.

Section P.
Variable inlen : N.
Variable lexq : bstr -> list tok.
Variable unq : bstr -> option bstr.
Variable pexpr : nat -> N -> pst -> presult node.
Variable efuel : list tok -> nat.
Variable pe : N -> cst -> cres node.
Variable w : list N -> cst -> cres node.
Variable lf : nat.
Notation loop := (item_list_loop inlen lexq unq pexpr efuel pe w lf).

Lemma eof_iter pre e l f pos acc s : Forall is_comment pre -> t_typ e = pit_EOF ->
  stream (c_p s) = pre ++ e :: l -> inv (c_p s) -> (length pre + 2 <= lf)%nat ->
  exists pos1 s', loop (S f) u_eof pos acc s = COk (NList pos1 acc) s'.
Proof.
  intros Hpre He Hs Hi Hlf.
  destruct (skip_pre lf pre e l s Hpre ltac:(rewrite He; discriminate) Hs Hi Hlf) as (token0 & s1 & s2 & Hn & Hsk & _).
  cbn [item_list_loop]. rewrite Hn. cbn [cbind]. unfold text_or_tag. rewrite Hsk. cbn [cbind]. rewrite He. change (one_of pit_EOF u_eof) with true. cbn [cbind snd]. eauto.
Qed.

End P.

Lemma droppable_norm tb ta x : droppable x = true -> normalize tb ta x = [].
Proof.
  unfold droppable. destruct x as [|c x]; [reflexivity|]. intros H.
  destruct (droppable_all_ws _ H) as (A & B & C). apply normalize_all_ws_nl; assumption.
Qed.

Lemma norm_tail tb x x' : (x = x' \/ exists b, ws b = true /\ x = x' ++ [b]) -> normalize tb true x = normalize tb true x'.
Proof. intros [->|(b & Hb & ->)]; [reflexivity|]. apply normalize_snoc_ws. exact Hb. Qed.

Lemma no_nul_tail x x' : (x = x' \/ exists b, ws b = true /\ x = x' ++ [b]) -> no_nul x -> no_nul x'.
Proof. intros [->|(b & Hb & ->)] H; [exact H|]. unfold no_nul in *. apply Forall_app in H. tauto. Qed.

Lemma pieces_no_nul pw T pcs : plain T -> pieces MText pw [] T = Some pcs -> Forall no_nul pcs.
Proof.
  intros Hpl. apply (pieces_bytes (fun c => c <> 0)); [constructor|].
  eapply Forall_impl; [|exact Hpl]. intros a (Ha & _). exact Ha.
Qed.
