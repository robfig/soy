(* C06: the standalone entry points as functions of BYTE STRINGS.
   parse.Expr on any bytes returns a tree or an error (the scanner theorem of
   Proofs/LexerProofs.v, the parser theorem of Proofs/ParserProofs.v, joined by
   Proofs/LexParseBridge.v), or the text contains a float literal outside the
   parser model's float domain ([OutOfModel]); hence EvalExpr on the parsed text
   and ParseGlobals on any input never let a panic out and never spin. *)
From Coq Require Import Lia ZifyBool.
From Soy Require Import Model.Bytes Model.Num Model.Values Model.Outcome Model.Ast Model.Token Model.NumLit
  Model.ExprParser Model.Parser Generated.Tables Model.Lexer Model.Interp Model.InterpSafety Model.Globals
  Model.ExprPipeline Spec.Safety
  Proofs.LexerPrim Proofs.LexerProofs Proofs.ParserMeasure Proofs.ParserProofs Proofs.LexParseBridge
  Proofs.SafetyPure Proofs.SafetyProofs Proofs.SafetyEntry.
Open Scope N_scope.

Lemma floats_okb_ok ts : floats_okb ts = true -> floats_ok ts.
Proof.
  unfold floats_okb, floats_ok. intros H. rewrite Forall_forall. intros t Hin Ht.
  rewrite forallb_forall in H. specialize (H t Hin). unfold float_item_ok in H.
  rewrite Ht, N.eqb_refl in H. destruct (parse_float (t_val t)); [discriminate | discriminate].
Qed.

(* the scanner model with the toolchain's tables, on any input: items, well-formed *)
Lemma lex_items_tbl_scan_ok (s : bstr) :
  exists ts w, lex_items_tbl true s = Ok (ts, w) /\ scan_ok (N.of_nat (length s)) ts.
Proof.
  destruct tables_eof as [Hl Hd].
  destruct (lex_total_linear _ _ Hl Hd 0%Z ltac:(lia) true s) as (l & Hr & He & _).
  exists (rev (l_out l)), (l_ticks l). unfold lex_items_tbl, lex_run. rewrite Hr. cbn [bind]. split; [reflexivity|].
  replace (N.of_nat (length s)) with (Z.to_N (0 + Z.of_nat (length s))) by lia. exact He.
Qed.

(* parse.Expr on ANY byte string: a tree, an error, or a float literal outside the model.
   Never a panic out of the parser or the scanner, never an exhausted budget. *)
Theorem parse_expr_bytes_total (s : bstr) :
  match parse_expr_bytes s with Ok _ | Err _ | OutOfModel => True | _ => False end.
Proof.
  unfold parse_expr_bytes.
  destruct (lex_items_tbl_scan_ok s) as (ts & w & Hts & Hscan). rewrite Hts.
  destruct (floats_okb ts) eqn:Hf; [|exact I].
  pose proof (parse_expr_total _ _ (scan_items_wf _ _ Hscan (floats_okb_ok _ Hf))) as Ht.
  destruct (po_result (soy_expr (N.of_nat (length s)) ts)); [exact I | exact I | destruct Ht | destruct Ht].
Qed.

Lemma parse_expr_bytes_no_escape (s : bstr) : no_escape (parse_expr_bytes s).
Proof. pose proof (parse_expr_bytes_total s) as H. destruct (parse_expr_bytes s); cbn in *; tauto. Qed.

(* EvalExpr on the tree parse.Expr makes of ANY byte string *)
Theorem eval_expr_bytes_no_escape fuel (s : bstr) : no_escape (eval_expr_bytes fuel s).
Proof.
  unfold eval_expr_bytes. pose proof (parse_expr_bytes_no_escape s) as Hp.
  destruct (parse_expr_bytes s) as [nd| | | | |]; cbn [bind]; try exact Hp; try exact I.
  apply eval_expr_no_escape_lemma.
Qed.

(* ParseGlobals on ANY input *)
Theorem parse_globals_bytes_no_escape fuel (input : bstr) : no_escape (parse_globals_bytes fuel input).
Proof. unfold parse_globals_bytes. apply parse_globals_no_escape_lemma. exact parse_expr_bytes_no_escape. Qed.

(* budgets.  soyhtml.EvalExpr runs with no registry: a {call} finds no template, so no callee is ever
   entered and the tree's own height is enough fuel for ANY tree *)
From Soy Require Import Model.Escape Model.Directives Model.Print Proofs.ValueProofs Proofs.InterpLogic Proofs.InterpSub
  Proofs.SafetyNodes Proofs.SafetyFuel Proofs.SafetyMono.

Theorem walk_fuel_no_registry cf : r_templates (c_reg cf) = [] ->
  forall fuel n, (tree_height n <= fuel)%nat -> fuel_ok (walk cf fuel n).
Proof.
  intros Hreg. induction fuel as [|fuel IH]; intros n Hf.
  - pose proof (height_pos n). lia.
  - rewrite walk_S.
    apply (phi_walk_body_sub cf _ _ (rel_logic_sub _ _ nf_rel_conditions) nf_pure_sites_sub).
    + apply rel_modify. intros st. exact I.
    + intros n' Hin. apply IH. pose proof (height_sub n n' Hin). lia.
    + intros callee cd Hc. destruct n; cbn [callee_of] in Hc; try discriminate.
      rewrite Hreg in Hc. discriminate.
Qed.

Theorem eval_expr_impl_total fuel n :
  (tree_height n <= fuel)%nat ->
  match eval_expr_impl true fuel n with Ok _ | Err _ | OutOfModel => True | _ => False end.
Proof.
  intros Hf. unfold eval_expr_impl, eval_expr.
  set (cf := {| c_reg := empty_registry; c_ij := None; c_oblig := []; c_msgs := None |}).
  pose proof (fuel_ok_nf _ (init_state [] 0 [] None None 2) (walk_fuel_no_registry cf eq_refl fuel n Hf)) as Hnf.
  destruct (fst (walk cf fuel n _)); cbn in Hnf |- *; tauto.
Qed.

(* an answer of EvalExpr is stable under more fuel *)
Lemma eval_expr_impl_monotone f f' n :
  (f <= f')%nat -> eval_expr_impl true f n <> OutOfFuel -> eval_expr_impl true f' n = eval_expr_impl true f n.
Proof.
  intros Hle Hne. unfold eval_expr_impl, eval_expr in *.
  set (cf := {| c_reg := empty_registry; c_ij := None; c_oblig := []; c_msgs := None |}) in *.
  set (st0 := init_state [] 0 [] None None 2) in *.
  destruct (walk cf f n st0) as [r st'] eqn:Hrun. cbn [fst] in Hne.
  assert (Hr : r <> OutOfFuel) by (intros ->; apply Hne; reflexivity).
  rewrite (walk_fuel_monotone cf f f' n st0 r st' Hle Hrun Hr). reflexivity.
Qed.

Theorem eval_expr_text_total (s : bstr) :
  match eval_expr_text s with Ok _ | Err _ | OutOfModel => True | _ => False end.
Proof.
  unfold eval_expr_text. pose proof (parse_expr_bytes_total s) as Hp.
  destruct (parse_expr_bytes s) as [nd| | | | |]; cbn [bind]; try exact Hp; try exact I.
  apply eval_expr_impl_total. lia.
Qed.

(* ParseGlobals: some budget (the tallest right-hand side) is enough for the whole input, and then the
   outcome is a map, an error, or outside the float model *)
Lemma globals_line_nf fuel g line :
  (line_fuel line <= fuel)%nat -> nf (globals_line parse_expr_bytes fuel g line).
Proof.
  unfold globals_line, line_fuel. destruct line as [|c l]; [intros; exact I|].
  destruct (is_comment _); [intros; exact I|].
  destruct (split_eq [] _) as [[lhs rhs]|]; [|intros; exact I].
  pose proof (parse_expr_bytes_total (trim_space rhs)) as Hp.
  destruct (parse_expr_bytes (trim_space rhs)) as [nd| | | | |]; cbn [bind]; intros Hf; try tauto.
  pose proof (eval_expr_impl_total fuel nd Hf) as He.
  destruct (eval_expr_impl true fuel nd); cbn [bind] in *; tauto.
Qed.

Lemma globals_lines_nf fuel ls : forall g,
  (fold_right (fun raw acc => Nat.max (line_fuel (drop_cr raw)) acc) 0%nat ls <= fuel)%nat ->
  nf (globals_lines parse_expr_bytes fuel g ls).
Proof.
  induction ls as [|raw r IH]; intros g Hf; cbn [globals_lines]; [exact I|].
  destruct (max_token <=? _); [exact I|]. cbn [fold_right] in Hf.
  apply nf_bind; [apply globals_line_nf; lia | intros g'; apply IH; lia].
Qed.

Theorem parse_globals_bytes_total fuel (input : bstr) :
  (globals_fuel input <= fuel)%nat ->
  match parse_globals_bytes fuel input with Ok _ | Err _ | OutOfModel => True | _ => False end.
Proof.
  intros Hf. pose proof (globals_lines_nf fuel (raw_lines [] input) [] Hf) as Hnf.
  unfold parse_globals_bytes, parse_globals.
  destruct (globals_lines parse_expr_bytes fuel [] (raw_lines [] input)); cbn in Hnf |- *; tauto.
Qed.
