(* C12, JavaScript side: a sequence of checked Write calls against the failing-writer automaton
   ([write_all] from a top-level state, which is what soyjs.Write does with its two pieces after the repair
   notes/applied/C12-js-write-errors.diff) returns the write error as soon as the writer refuses anything, has
   made the writer accept a prefix of the fault-free bytes, and returns nil only if every piece was accepted. *)
From Soy Require Import Model.Bytes Model.Num Model.Values Model.Outcome Model.Ast
  Model.Interp Model.JsWrite Spec.Writer Proofs.InterpLogic.
From Soy Require Import Proofs.BytesBase.
Require Import Lia ZifyBool.
Open Scope N_scope.

Lemma concat_b_app2 x y : concat_b (x ++ y) = concat_b x ++ concat_b y.
Proof. apply concat_b_app. Qed.

Lemma take_prefix n (s t : bstr) : prefix_of (take n s) (s ++ t).
Proof.
  revert s. induction n as [|n IH]; intros s; cbn [take].
  - exists (s ++ t). reflexivity.
  - destruct s as [|a s]; [exists t; reflexivity|]. destruct (IH s) as [rest Hr]. exists rest. cbn. rewrite Hr at 1. reflexivity.
Qed.

(* what a run of checked writes from a top-level state (no capture buffer) can end in *)
Definition budgets_suffice (st : mstate) (ws : list bstr) : Prop :=
  (forall k, calls_left st = Some k -> (length ws <= k)%nat) /\
  (forall k, bytes_left st = Some k -> N.of_nat (length (concat_b ws)) <= k).

(* an accepted write leaves the budgets sufficient for the rest exactly when they were sufficient for all *)
Lemma budgets_accepted st w ws : calls_left st <> Some O -> (forall k, bytes_left st = Some k -> N.of_nat (length w) <= k) ->
  budgets_suffice st (w :: ws) <->
  budgets_suffice (set_out st (w :: out st) (dec_calls (calls_left st))
                     (match bytes_left st with Some k => Some (k - N.of_nat (length w)) | None => None end)) ws.
Proof.
  intros Hc Hy. unfold budgets_suffice. cbn [calls_left bytes_left set_out length concat_b]. rewrite app_length.
  destruct (calls_left st) as [[|n]|]; [congruence| |]; (destruct (bytes_left st) as [k|]; [specialize (Hy k eq_refl)|]); cbn [dec_calls];
    (split; intros [H1 H2]; split; intros k' E; inversion E; subst; try specialize (H1 _ eq_refl); try specialize (H2 _ eq_refl); lia).
Qed.

Lemma write_all_top ws : forall st r st', bufs st = [] -> write_all ws st = (r, st') ->
  exists new, out st' = new ++ out st /\
    ((r = Ok tt /\ rev new = ws /\ budgets_suffice st ws) \/
     (r = Err e_write /\ ~ budgets_suffice st ws /\ prefix_of (concat_b (rev new)) (concat_b ws))).
Proof.
  induction ws as [|w ws IH]; intros st r st' Hb H.
  - inversion H; subst. exists []. split; [reflexivity|]. left. repeat split; cbn; intros; lia.
  - rewrite write_all_cons in H.
    destruct (mbind_inv _ _ _ _ _ H) as [(x & st1 & H1 & H2) | (e & H1 & ->)].
    + pose proof (write_inv _ _ _ _ H1) as Hw. inversion Hw as [buf rest Hbb | | | Hb0 Hc Hy]; subst; try congruence.
      pose proof (budgets_accepted st w ws Hc Hy) as Hbud.
      apply IH in H2 as (new & Ho & Hcase); [|exact Hb].
      exists (new ++ [w]). split; [rewrite Ho; cbn; rewrite <- app_assoc; reflexivity|]. rewrite rev_app_distr. cbn [rev app].
      destruct Hcase as [(-> & Hr & Hs) | (-> & Hn & Hp)].
      * left. split; [reflexivity|]. split; [rewrite Hr; reflexivity|apply Hbud; exact Hs].
      * right. split; [reflexivity|]. split; [intro Hs; apply Hn, Hbud, Hs|].
        cbn [concat_b]. destruct Hp as [rest Hrest]. exists rest. rewrite Hrest, app_assoc. reflexivity.
    + pose proof (write_inv _ _ _ _ H1) as Hw. destruct e; inversion Hw as [ | Hb0 Hc | k Hb0 Hc Hy Hlt | ]; subst.
      * (* refused outright *)
        exists []. split; [reflexivity|]. right. split; [reflexivity|]. split.
        -- intros [Hs1 _]. specialize (Hs1 O Hc). cbn in Hs1. lia.
        -- exists (concat_b (w :: ws)). reflexivity.
      * (* short write *)
        exists [take (N.to_nat k) w]. split; [reflexivity|]. right. split; [reflexivity|]. split.
        -- intros [_ Hs2]. specialize (Hs2 k Hy). cbn [concat_b] in Hs2. rewrite app_length in Hs2. lia.
        -- cbn [rev app concat_b]. rewrite app_nil_r. apply take_prefix.
Qed.

Section JsWrite.
Variable pieces : list bstr.
Variables (cl : option nat) (bl : option N).

Lemma refuses_budgets : refuses cl bl pieces <-> ~ budgets_suffice (js_writer cl bl) pieces.
Proof.
  unfold refuses, budgets_suffice, js_writer. cbn. split.
  - intros [(k & -> & Hk) | (k & -> & Hk)] [H1 H2].
    + specialize (H1 k eq_refl). lia.
    + specialize (H2 k eq_refl). lia.
  - (* if neither budget is exceeded they suffice *)
    intros Hn. destruct cl as [k|]; [destruct (Nat.lt_ge_cases k (length pieces)); [left; eauto|]|];
      (destruct bl as [c|]; [destruct (N.lt_ge_cases c (N.of_nat (length (concat_b pieces)))); [right; eauto|]|]);
      exfalso; apply Hn; split; intros k' Hk'; inversion Hk'; subst; assumption.
Qed.

Lemma js_write_cases :
  (fst (js_write pieces cl bl) = Ok tt /\ snd (js_write pieces cl bl) = pieces /\ ~ refuses cl bl pieces) \/
  (fst (js_write pieces cl bl) = Err e_write /\ refuses cl bl pieces /\
   prefix_of (concat_b (snd (js_write pieces cl bl))) (concat_b pieces)).
Proof.
  unfold js_write. destruct (write_all pieces (js_writer cl bl)) as [r st] eqn:H.
  destruct (write_all_top pieces (js_writer cl bl) r st eq_refl H) as (new & Ho & Hc). cbn [fst snd].
  assert (Hout : out st = new) by (rewrite Ho; cbn; apply app_nil_r). rewrite Hout.
  destruct Hc as [(-> & Hr & Hs) | (-> & Hn & Hp)].
  - left. repeat split; [exact Hr|]. intros Hrf. apply refuses_budgets in Hrf. contradiction.
  - right. repeat split; [apply refuses_budgets; exact Hn | exact Hp].
Qed.

(* the writer refuses something => the error is returned *)
Theorem js_write_fault_surfaces_l : refuses cl bl pieces -> fst (js_write pieces cl bl) = Err e_write.
Proof. intros Hr. destruct js_write_cases as [(_ & _ & Hn) | (H & _)]; [contradiction | exact H]. Qed.

(* what the writer accepted is a prefix of the script *)
Theorem js_accepted_is_prefix_l : prefix_of (concat_b (snd (js_write pieces cl bl))) (concat_b pieces).
Proof.
  destruct js_write_cases as [(_ & -> & _) | (_ & _ & H)]; [exists []; rewrite app_nil_r; reflexivity | exact H].
Qed.

(* nil => every piece was written, whole and in order *)
Theorem js_nil_means_all_written_l : fst (js_write pieces cl bl) = Ok tt -> snd (js_write pieces cl bl) = pieces.
Proof. intros Ho. destruct js_write_cases as [(_ & H & _) | (H & _)]; [exact H | congruence]. Qed.
End JsWrite.

(* the pinned code (results of out.Write dropped) is what the statement rules out: nil on a dead writer *)
Lemma js_write_pinned_refuted :
  exists pieces cl bl, refuses cl bl pieces /\ fst (js_write_pinned pieces cl bl) = Ok tt /\ snd (js_write_pinned pieces cl bl) = [].
Proof. exists [[105]; [106]], (Some O), None. split; [left; exists O; split; [reflexivity | cbn; lia] | vm_compute; split; reflexivity]. Qed.
