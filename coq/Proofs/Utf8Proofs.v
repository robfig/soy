(* Facts about the UTF-8 model (Model/Utf8.v): encode/decode inverses, the shape
   of an encoding, and rune-by-rune induction over valid strings. *)
From Coq Require Import Lia ZifyN ZifyNat ZifyBool.
From Soy Require Import Model.Bytes Model.Utf8.
From Soy Require Export Proofs.BytesBase.
Open Scope N_scope.

Ltac brk1 := match goal with
  | |- context[if ?c then _ else _] =>
      lazymatch c with context[if _ then _ else _] => fail | _ => let E := fresh "E" in destruct c eqn:E end
  end.
Ltac brk := repeat brk1.
(* resolve every conditional whose test is decided by linear arithmetic *)
Ltac decide_ifs := repeat (brk1; try lia).

Definition valid_scalar (r : N) : Prop := r < 55296 \/ (57343 < r /\ r <= 1114111).

(* The well-formed byte sequences of Unicode's table 3-7, by their payload bits (110xxxxx 10xxxxxx
   and so on), each with the scalar value it stands for.  DecodeRune accepts exactly these and
   EncodeRune produces exactly these; the facts below about the two functions all go through this
   one description, which keeps the arithmetic free of subtraction and of the functions' tests. *)
Inductive utf8_seq : bstr -> N -> Prop :=
| seq1 x : x < 128 -> utf8_seq [x] x
| seq2 b0 b1 x0 x1 r : b0 = 192 + x0 -> b1 = 128 + x1 -> r = x0 * 64 + x1 ->
    2 <= x0 < 32 -> x1 < 64 -> utf8_seq [b0; b1] r
| seq3 b0 b1 b2 x0 x1 x2 r : b0 = 224 + x0 -> b1 = 128 + x1 -> b2 = 128 + x2 -> r = x0 * 4096 + x1 * 64 + x2 ->
    x0 < 16 -> x1 < 64 -> x2 < 64 -> (x0 = 0 -> 32 <= x1) -> (x0 = 13 -> x1 < 32) -> utf8_seq [b0; b1; b2] r
| seq4 b0 b1 b2 b3 x0 x1 x2 x3 r : b0 = 240 + x0 -> b1 = 128 + x1 -> b2 = 128 + x2 -> b3 = 128 + x3 ->
    r = x0 * 262144 + x1 * 4096 + x2 * 64 + x3 ->
    x0 <= 4 -> x1 < 64 -> x2 < 64 -> x3 < 64 -> (x0 = 0 -> 16 <= x1) -> (x0 = 4 -> x1 < 16) -> utf8_seq [b0; b1; b2; b3] r.

Lemma decode_seq bs r X : utf8_seq bs r -> decode_rune (bs ++ X) = (r, length bs).
Proof.
  intros []; subst; cbn [app length decode_rune]; unfold is_cont, in_range; decide_ifs; f_equal; lia.
Qed.

(* DecodeRune's test on the second byte: a continuation byte, narrowed for one or two lead bytes *)
Lemma second_byte b0 b1 x lo y hi : (128 <=? lo) = true -> (hi <=? 191) = true ->
  in_range (if b0 =? x then lo else 128) (if b0 =? y then hi else 191) b1 = true <->
  is_cont b1 = true /\ (b0 = x -> lo <= b1) /\ (b0 = y -> b1 <= hi).
Proof.
  intros Hlo Hhi. unfold is_cont, in_range.
  destruct (N.eqb_spec b0 x), (N.eqb_spec b0 y); lia.
Qed.

Lemma decode_rune_seq s r w : decode_rune s = (r, w) ->
  (r = rune_error /\ (s = [] \/ w = 1%nat)) \/ exists bs, utf8_seq bs r /\ length bs = w /\ s = bs ++ drop w s.
Proof.
  assert (Hbad : forall k, s = [] \/ k = 1%nat -> (rune_error, k) = (r, w) ->
    (r = rune_error /\ (s = [] \/ w = 1%nat)) \/ exists bs, utf8_seq bs r /\ length bs = w /\ s = bs ++ drop w s).
  { intros k Hk [= <- <-]. left. auto. }
  destruct s as [|b0 s]; cbn [decode_rune]; [apply Hbad; auto|].
  destruct (N.ltb_spec b0 128) as [H0|H0].
  { intros [= <- <-]. right. exists [b0]. split; [apply seq1, H0|auto]. }
  destruct (in_range 194 223 b0) eqn:E2.
  { destruct s as [|b1 s]; [apply Hbad; auto|]. destruct (is_cont b1) eqn:E1; [|apply Hbad; auto].
    clear Hbad. intros [= <- <-]. right. exists [b0; b1]. split; [|auto].
    unfold is_cont, in_range in *. apply (seq2 b0 b1 (b0 - 192) (b1 - 128)); lia. }
  destruct (in_range 224 239 b0) eqn:E3.
  { destruct s as [|b1 [|b2 s]]; try (apply Hbad; auto).
    destruct (in_range _ _ b1 && is_cont b2) eqn:E; [|apply Hbad; auto].
    apply andb_true_iff in E as [E1 E2']. apply second_byte in E1 as (E1 & Hlo & Hhi); [|reflexivity..].
    clear Hbad E2. intros [= <- <-]. right. exists [b0; b1; b2]. split; [|auto].
    unfold is_cont, in_range in *. apply (seq3 b0 b1 b2 (b0 - 224) (b1 - 128) (b2 - 128)); lia. }
  destruct (in_range 240 244 b0) eqn:E4; [|apply Hbad; auto].
  destruct s as [|b1 [|b2 [|b3 s]]]; try (apply Hbad; auto).
  destruct (in_range _ _ b1 && is_cont b2 && is_cont b3) eqn:E; [|apply Hbad; auto].
  apply andb_true_iff in E as [E E3']. apply andb_true_iff in E as [E1 E2'].
  apply second_byte in E1 as (E1 & Hlo & Hhi); [|reflexivity..].
  clear Hbad E2 E3. intros [= <- <-]. right. exists [b0; b1; b2; b3]. split; [|auto].
  unfold is_cont, in_range in *. apply (seq4 b0 b1 b2 b3 (b0 - 240) (b1 - 128) (b2 - 128) (b3 - 128)); lia.
Qed.

Lemma encode_seq r : valid_scalar r -> utf8_seq (encode_rune r) r.
Proof.
  intros Hv. unfold valid_scalar in Hv. unfold encode_rune.
  destruct (N.ltb_spec r 128); [apply seq1; assumption|].
  destruct (N.ltb_spec r 2048); [apply (seq2 _ _ (r / 64) (r mod 64)); lia|].
  replace (in_range 55296 57343 r || (1114111 <? r)) with false by (unfold in_range; lia).
  destruct (N.ltb_spec r 65536).
  - apply (seq3 _ _ _ (r / 4096) (r / 64 mod 64) (r mod 64)); lia.
  - apply (seq4 _ _ _ _ (r / 262144) (r / 4096 mod 64) (r / 64 mod 64) (r mod 64)); lia.
Qed.

Lemma seq_encode bs r : utf8_seq bs r -> valid_scalar r /\ encode_rune r = bs.
Proof.
  unfold valid_scalar, encode_rune, in_range.
  intros []; subst; decide_ifs; (split; [lia|repeat f_equal; lia]).
Qed.

Lemma decode_encode r X : valid_scalar r ->
  decode_rune (encode_rune r ++ X) = (r, length (encode_rune r)).
Proof. intro Hv. apply decode_seq, encode_seq, Hv. Qed.

(* shape of an encoding: a rune-start byte followed by continuation bytes *)
Lemma encode_rune_shape r : valid_scalar r ->
  exists c0 tl, encode_rune r = c0 :: tl /\ rune_start c0 = true /\ Forall (fun c => is_cont c = true) tl
                /\ (length tl <= 3)%nat /\ (c0 < 128 <-> r < 128) /\ (r < 128 -> c0 = r /\ tl = []) /\ c0 < 256 /\ Forall (fun c => c < 256) tl.
Proof.
  intros Hv. destruct (encode_seq r Hv); eexists; eexists; (split; [reflexivity|]);
    unfold rune_start, is_cont, in_range; cbn [length]; repeat split; repeat constructor; lia.
Qed.

(* decode -> encode: a successful decode has read exactly the encoding of its rune *)
Lemma decode_rune_inv s r w : s <> [] -> decode_rune s = (r, w) -> ~ (r = rune_error /\ w = 1%nat) ->
  valid_scalar r /\ length (encode_rune r) = w /\ s = encode_rune r ++ drop w s.
Proof.
  intros Hne Hd Hbad. destruct (decode_rune_seq s r w Hd) as [[Hr [Hs|Hw]]|(bs & Hs & Hl & Hsplit)]; [contradiction|tauto|].
  destruct (seq_encode bs r Hs) as [Hv <-]. auto.
Qed.

Lemma take_length_le (k : nat) (s : bstr) : (length (take k s) <= k)%nat.
Proof. exact (BytesBase.take_length_le k s). Qed.
Lemma take_all (k : nat) (s : bstr) : (length s <= k)%nat -> take k s = s.
Proof. exact (BytesBase.take_all k s). Qed.

Lemma valid_aux_skip k pre rest : length pre = k -> utf8_valid_aux k (pre ++ rest) = utf8_valid_aux 0 rest.
Proof.
  revert pre; induction k; intros [|c pre] H; cbn in H; try discriminate; [reflexivity|].
  cbn [app utf8_valid_aux]. apply IHk. lia.
Qed.

Lemma encode_rune_len_pos r : valid_scalar r -> exists tl c0, encode_rune r = c0 :: tl.
Proof. intros H. destruct (encode_rune_shape r H) as (c0 & tl & E & _). eauto. Qed.

Lemma encode_not_bad r : valid_scalar r -> ~ (r = rune_error /\ length (encode_rune r) = 1%nat).
Proof.
  intros _ [-> H]. vm_compute in H. discriminate.
Qed.

Lemma utf8_valid_rune r X : valid_scalar r -> utf8_valid (encode_rune r ++ X) = utf8_valid X.
Proof.
  intros Hv. pose proof (decode_encode r X Hv) as Hd.
  destruct (encode_rune_shape r Hv) as (c0 & tl & E & _).
  unfold utf8_valid. rewrite E in *. cbn [app utf8_valid_aux]. cbn [app] in Hd. rewrite Hd.
  cbn [length Nat.pred].
  destruct ((r =? rune_error) && Nat.eqb (S (length tl)) 1) eqn:Eb.
  - exfalso. apply andb_true_iff in Eb. destruct Eb as [E1 E2]. apply N.eqb_eq in E1. apply Nat.eqb_eq in E2.
    apply (encode_not_bad r Hv). rewrite E. cbn [length]. auto.
  - apply valid_aux_skip. reflexivity.
Qed.

Lemma utf8_valid_step s : s <> [] -> utf8_valid s = true ->
  exists r X, valid_scalar r /\ s = encode_rune r ++ X /\ utf8_valid X = true.
Proof.
  intros Hne Hv. destruct s as [|c s0]; [congruence|].
  destruct (decode_rune (c :: s0)) as [r w] eqn:Hd.
  unfold utf8_valid in Hv. cbn [utf8_valid_aux] in Hv. rewrite Hd in Hv.
  destruct ((r =? rune_error) && Nat.eqb w 1) eqn:Eb; [discriminate|].
  assert (~ (r = rune_error /\ w = 1%nat)) as Hnb.
  { intros [-> ->]. cbn in Eb. discriminate. }
  destruct (decode_rune_inv (c :: s0) r w Hne Hd Hnb) as (Hvs & Hlen & Hs).
  exists r, (drop w (c :: s0)). split; [exact Hvs|]. split; [exact Hs|].
  destruct (encode_rune_shape r Hvs) as (c0 & tl & E & _).
  rewrite E in Hs, Hlen. cbn [app length] in Hs, Hlen. subst w.
  injection Hs as Hc Hs0. cbn [Nat.pred] in Hv. unfold utf8_valid.
  rewrite Hs0 in Hv. rewrite valid_aux_skip in Hv by reflexivity. exact Hv.
Qed.

Lemma utf8_valid_ind (P : bstr -> Prop) :
  P [] ->
  (forall r X, valid_scalar r -> utf8_valid X = true -> P X -> P (encode_rune r ++ X)) ->
  forall s, utf8_valid s = true -> P s.
Proof.
  intros Hnil Hstep s. remember (length s) as n eqn:Hn. revert s Hn.
  induction n as [n IH] using lt_wf_ind. intros s Hn Hv.
  destruct s as [|c s0] eqn:Es; [exact Hnil|]. rewrite <- Es in *.
  destruct (utf8_valid_step s) as (r & X & Hr & Hs & HX); [subst s; discriminate|exact Hv|].
  rewrite Hs. apply Hstep; auto. apply (IH (length X)); auto.
  destruct (encode_rune_shape r Hr) as (c0 & tl & E & _).
  rewrite Hn, Hs, E. cbn [app length]. rewrite app_length. lia.
Qed.

Lemma utf8_valid_app a c : utf8_valid a = true -> utf8_valid c = true -> utf8_valid (a ++ c) = true.
Proof.
  intros Ha Hc. revert a Ha. apply (utf8_valid_ind (fun a => utf8_valid (a ++ c) = true)); [exact Hc|].
  intros r X Hr HX IH. rewrite <- app_assoc. rewrite utf8_valid_rune by exact Hr. exact IH.
Qed.

(* a prefix that ends where a rune starts is valid *)
Lemma utf8_valid_take s : utf8_valid s = true ->
  forall k c, nth_error s k = Some c -> rune_start c = true -> utf8_valid (take k s) = true.
Proof.
  revert s. apply (utf8_valid_ind (fun s => forall k c, nth_error s k = Some c -> rune_start c = true -> utf8_valid (take k s) = true)).
  - intros k c H. destruct k; discriminate.
  - intros r X Hr HX IH k c Hn Hc.
    destruct (encode_rune_shape r Hr) as (c0 & tl & E & Hs0 & Htl & _).
    destruct (Nat.lt_ge_cases k (length (encode_rune r))) as [Hlt|Hge].
    + destruct k as [|k]; [reflexivity|]. exfalso.
      rewrite E in Hn, Hlt. cbn [app nth_error length] in Hn, Hlt.
      rewrite nth_error_app1 in Hn by lia.
      apply nth_error_In in Hn. rewrite Forall_forall in Htl. specialize (Htl c Hn).
      unfold rune_start in Hc. rewrite Htl in Hc. discriminate.
    + rewrite take_app_ge by exact Hge. rewrite utf8_valid_rune by exact Hr.
      rewrite nth_error_app2 in Hn by exact Hge. eapply IH; eauto.
Qed.
