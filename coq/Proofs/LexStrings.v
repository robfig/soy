(* "Lexes exactly this token", string literals: a quote, a body of valid UTF-8 runes in which the quote
   occurs only after a backslash (a backslash skips the following rune), and the closing quote. *)
From Soy Require Import Model.Bytes Model.Utf8 Model.Outcome Model.Token Generated.Tables Model.Lexer
  Proofs.Utf8Proofs Proofs.LexerPrim Proofs.LexerStates Proofs.LexTokens.
From Coq Require Import ZifyBool Lia.
Open Scope Z_scope.

(* the body of a string literal, rune by rune: no unescaped quote, no backslash at the very end *)
Fixpoint str_body_ok (q : N) (rs : list N) : bool :=
  match rs with
  | [] => true
  | r :: rest =>
      if (r =? 92)%N then match rest with [] => false | _ :: rest' => str_body_ok q rest' end
      else if (r =? q)%N then false else str_body_ok q rest
  end.

Definition string_of_runes (l : list N) : bstr := concat_b (map encode_rune l).

Section Strings.
Variable uni_letter uni_digit : Z -> bool.
Variable inp : bstr.
Variable base : Z.
Notation ilen := (Z.of_nat (length inp)).
Notation steps := (steps uni_letter uni_digit inp base).
Notation span := (span inp).

(* the lexer after reading one more rune of n bytes *)
Definition advn (l : lx) (n : nat) : lx :=
  {| l_pos := l_pos l + Z.of_nat n; l_start := l_start l; l_width := Z.of_nat n; l_dd := l_dd l; l_last := l_last l;
     l_out := l_out l; l_ticks := l_ticks l + 1 |}.

Lemma next_rune l w r s : span l w (encode_rune r ++ s) -> valid_scalar r ->
  next inp ilen l = Ok (Z.of_N r, advn l (length (encode_rune r))) /\ span (advn l (length (encode_rune r))) (w ++ encode_rune r) s.
Proof.
  intros Hs Hv. pose proof (span_cur inp _ _ _ Hs) as (Hp & Hd). pose proof (span_bounds inp _ _ _ Hs) as (Hb & Hl).
  destruct (encode_rune_shape r Hv) as (c0 & tl & He & _). rewrite app_length in Hl.
  assert (Hpos : (0 < length (encode_rune r))%nat) by (rewrite He; cbn; lia).
  split.
  - unfold next. destruct (ilen <=? l_pos l) eqn:E; [lia|]. destruct (l_pos l <? 0) eqn:E2; [lia|].
    rewrite Hd, (decode_encode r s Hv). reflexivity.
  - destruct Hs as (H0 & Hds & Hps). unfold LexTokens.span, advn. cbn [l_start l_pos]. split; [exact H0|]. split.
    + rewrite Hds, <- app_assoc. reflexivity.
    + rewrite app_length. lia.
Qed.

Lemma string_of_runes_cons r rs : string_of_runes (r :: rs) = encode_rune r ++ string_of_runes rs.
Proof. reflexivity. Qed.

Lemma encode_len_pos r : valid_scalar r -> (0 < length (encode_rune r))%nat.
Proof. intros Hv. destruct (encode_rune_shape r Hv) as (c0 & tl & He & _). rewrite He. cbn. lia. Qed.

Lemma string_loop_close q l w s f : (q < 128)%N -> q <> 92%N -> span l w (q :: s) ->
  string_loop inp ilen base (S f) (Z.of_N q) l = emit_to inp ilen base itemString LInsideTag (adv l) /\ span (adv l) (w ++ [q]) s.
Proof.
  intros Hq Hq92 Hs. destruct (next_ascii inp l w q s Hs Hq) as (Hn & Hs1). split; [|exact Hs1].
  cbn [string_loop]. rewrite Hn. cbn [bind].
  replace (Z.of_N q =? eof) with false by (unfold eof; lia). replace (Z.of_N q =? 92) with false by lia.
  rewrite Z.eqb_refl. reflexivity.
Qed.

(* the loop of stringLexer over a well-formed body and the closing quote; an escape consumes two runes, hence
   the induction on a bound of the length *)
Lemma string_loop_body q n : forall rs l w s fuel, (length rs <= n)%nat -> (q < 128)%N -> q <> 92%N ->
  span l w (string_of_runes rs ++ q :: s) -> Forall valid_scalar rs -> str_body_ok q rs = true ->
  (length (string_of_runes rs) < fuel)%nat ->
  exists l1, string_loop inp ilen base fuel (Z.of_N q) l = emit_to inp ilen base itemString LInsideTag l1 /\
             span l1 (w ++ string_of_runes rs ++ [q]) s /\ unsent l l1.
Proof.
  induction n as [|n IH]; intros rs l w s fuel Hlen Hq Hq92 Hs Hv Hok Hf; (destruct fuel as [|f]; [lia|]);
    (destruct rs as [|r rs]; [destruct (string_loop_close q l w s f Hq Hq92 Hs) as (H1 & H2); exists (adv l); split; [exact H1|split; [exact H2|repeat split]]|]).
  - cbn in Hlen. lia.
  - cbn [string_loop]. inversion Hv as [|? ? Hr Hv']; subst. rewrite string_of_runes_cons in *. rewrite <- app_assoc in Hs.
    destruct (next_rune l w r _ Hs Hr) as (Hn & Hs1). rewrite Hn. cbn [bind].
    pose proof (encode_len_pos r Hr) as Hlr. rewrite app_length in Hf.
    replace (Z.of_N r =? eof) with false by (unfold eof; lia).
    cbn [str_body_ok] in Hok. destruct (N.eqb_spec r 92) as [E92|E92].
    + (* an escape: the next rune is skipped *)
      subst r. change (Z.of_N 92 =? 92) with true. cbv iota.
      destruct rs as [|r2 rs]; [discriminate|]. inversion Hv' as [|? ? Hr2 Hv'']; subst.
      rewrite string_of_runes_cons in *. rewrite <- app_assoc in Hs1.
      destruct (next_rune _ _ r2 _ Hs1 Hr2) as (Hn2 & Hs2). rewrite Hn2. cbn [bind].
      pose proof (encode_len_pos r2 Hr2) as Hlr2. rewrite app_length in Hf.
      destruct (IH rs _ _ s f ltac:(cbn in Hlen; lia) Hq Hq92 Hs2 Hv'' Hok ltac:(lia)) as (l1 & H1 & H2 & H3).
      exists l1. split; [exact H1|]. split; [|exact H3].
      repeat rewrite <- app_assoc in H2. repeat rewrite <- app_assoc. exact H2.
    + replace (Z.of_N r =? 92) with false by lia.
      destruct (N.eqb_spec r q) as [Eq|Eq]; [discriminate|]. replace (Z.of_N r =? Z.of_N q) with false by lia.
      destruct (IH rs _ _ s f ltac:(cbn in Hlen; lia) Hq Hq92 Hs1 Hv' Hok ltac:(lia)) as (l1 & H1 & H2 & H3).
      exists l1. split; [exact H1|]. split; [|exact H3].
      repeat rewrite <- app_assoc in H2. repeat rewrite <- app_assoc. exact H2.
Qed.

Lemma lex_string_tok l q rs s : (q = 39 \/ q = 34)%N ->
  span l [] (q :: string_of_runes rs ++ q :: s) -> Forall valid_scalar rs -> str_body_ok q rs = true ->
  exists l', steps 2 LInsideTag l = Ok (LInsideTag, l') /\ span l' [] s /\ sent itemString (q :: string_of_runes rs ++ [q]) l l'.
Proof.
  intros Hq Hs Hv Hok.
  assert (Hq128 : (q < 128)%N) by lia. assert (Hq92 : q <> 92%N) by lia.
  destruct (next_ascii inp l [] q _ Hs Hq128) as (Hn & Hs1).
  assert (H1 : step uni_letter uni_digit inp ilen base LInsideTag l = Ok (LString (Z.of_N q), adv l)).
  { cbn [step]. unfold lex_inside_tag. rewrite Hn. cbn [bind]. destruct Hq as [-> | ->]; eval_tests; reflexivity. }
  destruct (string_loop_body q (length rs) rs (adv l) _ s (loop_fuel ilen (adv l)) (le_n _) Hq128 Hq92 Hs1 Hv Hok) as (l1 & Hl & Hs2 & Hu).
  { pose proof (span_bounds inp _ _ _ Hs1) as (Hb & Hlen). rewrite app_length in Hlen. unfold loop_fuel. lia. }
  exact (steps2_sends H1 Hs2 Hu Hl ltac:(repeat split)).
Qed.

End Strings.
