(* C15, template level with print commands among the tags, inside a template: a whole minimal file
   {template .name} T0 tag1 T1 ... tagn Tn {/template}   (Spec/TextTags.v c15_tpl_file).
   The pieces of Proofs/LexBodyTags.v / ParseBodyTags.v / BodyTagsMain.v for a body that is followed by a tag and
   read by itemList with an arbitrary until-set, and parseTemplate around it (as Proofs/ParseTemplate.v /
   BodyTemplateMain.v do for bodies without print commands). *)
From Soy Require Import Model.Bytes Model.Outcome Model.Ast Model.Token Model.AstPrint Model.ExprParser Model.Parser Model.Lexer
  Generated.Tables Spec.Text Spec.TextMix Spec.TextTemplate Spec.TextTags Spec.ExprSyntax Proofs.RawTextProofs Proofs.ExprParserProofs
  Proofs.LexerProofs Proofs.LexTokens Proofs.LexBodyText Proofs.LexBodySeg Proofs.LexBodyCmd Proofs.LexBodyLit Proofs.LexBodyMixMain
  Proofs.LexTemplate Proofs.ParseBodyText Proofs.ParseTemplate Proofs.BodyTemplateMain Proofs.ParserProofs Proofs.LexParseBridge
  Proofs.CmdParserStripDefs Proofs.BodyTagsShape Proofs.LexBodyTags Proofs.ParseBodyTags Proofs.BodyTagsMain.
From Coq Require Import Lia.
Open Scope N_scope.

(* the items of a body that is followed by the items [term] *)
Inductive c15_gshapeT (X : node -> list tok -> Prop) (term : list tok) : list bstr -> list (c15_tag * list bstr) -> list tok -> Prop :=
| gtt_end pcs its : pshape pcs its -> c15_gshapeT X term pcs [] (its ++ term)
| gtt_text pcs its c o tg pcs' rest items :
    pshape pcs its -> tagitems o tg -> c15_gshapeT X term pcs' rest items ->
    c15_gshapeT X term pcs ((C15Text (c, o), pcs') :: rest) (its ++ tg ++ items)
| gtt_print pcs its n txt ld mid pcs' rest items :
    pshape pcs its -> t_typ ld = itemLeftDelim -> X n mid -> c15_gshapeT X term pcs' rest items ->
    c15_gshapeT X term pcs ((C15Print n txt, pcs') :: rest) (its ++ (ld :: mid) ++ items).

Lemma gshapeT_erase inlen term : forall pcs rp items, c15_gshapeT c15_X1 term pcs rp items -> items_wf inlen items ->
  exists items0, c15_gshapeT c15_X0 term pcs rp items0 /\ map strip_tok items0 = map strip_tok items /\ items_wf inlen items0 /\
                 length items0 = length items.
Proof.
  intros pcs rp items H. induction H as [pcs its Hps|pcs its c o tg pcs' rest items Hps Htg Hsh IH|pcs its n txt ld mid pcs' rest items Hps Hld HX Hsh IH]; intros Hw.
  - exists (its ++ term). split; [apply gtt_end; assumption|auto].
  - unfold items_wf in Hw. rewrite !Forall_app in Hw. destruct Hw as (Hw1 & Hw2 & Hw3). destruct (IH Hw3) as (items0 & Hsh0 & Hst & Hw0 & Hlen).
    exists (its ++ tg ++ items0).
    split; [apply gtt_text; assumption|]. split; [rewrite !map_app, Hst; reflexivity|].
    split; [unfold items_wf; rewrite !Forall_app; auto|]. rewrite !app_length, Hlen. reflexivity.
  - unfold items_wf in Hw. rewrite !Forall_app in Hw. destruct Hw as (Hw1 & Hw2 & Hw3). destruct (IH Hw3) as (items0 & Hsh0 & Hst & Hw0 & Hlen).
    inversion Hw2 as [|? ? Hwld Hwmid]; subst. destruct (erase_print inlen n mid HX Hwmid) as (HX0 & Hmm & Hwm).
    exists (its ++ (ld :: map strip_tok mid) ++ items0).
    split; [apply gtt_print; assumption|]. split; [rewrite !map_app; cbn [map]; rewrite Hst, Hmm; reflexivity|].
    split; [unfold items_wf; rewrite !Forall_app; auto|]. rewrite !app_length. cbn [length]. rewrite map_length, Hlen. reflexivity.
Qed.

Section Scan.
Variable uni_letter uni_digit : Z -> bool.
Hypothesis letter_ascii : forall c, (c < 128)%N -> uni_letter (Z.of_N c) = ((65 <=? c) && (c <=? 90) || (97 <=? c) && (c <=? 122))%N.
Hypothesis digit_ascii : forall c, (c < 128)%N -> uni_digit (Z.of_N c) = digit_b c.
Hypothesis letter_eof : uni_letter (-1)%Z = false.
Hypothesis digit_eof : uni_digit (-1)%Z = false.

Lemma c15_rest_src_tl_tag r tl : (forall sg, In sg r -> c15_tag_ok print_node (fst sg) /\ mix_stretch_ok false false (snd sg)) ->
  tl <> [] -> tag_or_end tl -> tag_or_end (c15_rest_src r ++ tl) /\ c15_rest_src r ++ tl <> [].
Proof.
  intros Hr Hne Htl. destruct r as [|[t T] r'].
  - cbn [c15_rest_src app]. auto.
  - destruct (Hr _ (or_introl eq_refl)) as [Hok _]. cbn [fst] in Hok. cbn [c15_rest_src].
    destruct (c15_tag_src_brace print_node t Hok print_node_brace) as (t' & ->). split; [right; eexists; reflexivity|discriminate].
Qed.

Lemma lex_tags_run_tl inp : forall rest rp T pcs l tl, tl <> [] -> tag_or_end tl ->
  span inp l [] (T ++ c15_rest_src rest ++ tl) -> l_dd l = false ->
  mix_stretch_ok (pwof 0 l) false T -> pieces MText (pwof 0 l) [] T = Some pcs ->
  (forall sg, In sg rest -> c15_tag_ok print_node (fst sg) /\ mix_stretch_ok false false (snd sg)) -> c15_lex_oks rest -> c15_rest_pieces rest rp ->
  exists k l' items, steps uni_letter uni_digit inp 0 k LText l = Ok (LLeftDelim, l') /\ span inp l' [] tl /\ l_out l' = rev items ++ l_out l /\
    forall term, c15_gshapeT c15_X1 term pcs rp (items ++ term).
Proof.
  induction rest as [|[tg T'] r IH]; intros rp T pcs l tl Hne Htl Hs Hdd [Hpl Hop] Hpc Hrest Hlx Hrp.
  - destruct rp; [|contradiction]. cbn [c15_rest_src app] in Hs.
    destruct (lex_stretch uni_letter uni_digit letter_ascii digit_ascii letter_eof digit_eof inp (length T) T (le_n _) l pcs tl Hs Hpl Htl Hpc ltac:(intros _; apply Hop; reflexivity))
      as (k & l' & its & st' & Hst & Hsh & _ & Hend).
    destruct Hend as [(A & _)|(_ & -> & Ho & Hs')]; [congruence|].
    exists k, l', its. split; [exact Hst|]. split; [exact Hs'|]. split; [exact Ho|]. intros term. apply gtt_end. exact Hsh.
  - destruct rp as [|[tg' pcs'] rp']; [contradiction|]. cbn [c15_rest_pieces] in Hrp. destruct Hrp as (-> & Hpc' & Hrp').
    destruct (Hrest _ (or_introl eq_refl)) as (Hcmd & Hok'). cbn [fst snd] in Hcmd, Hok'.
    assert (Hrest' : forall sg, In sg r -> c15_tag_ok print_node (fst sg) /\ mix_stretch_ok false false (snd sg)) by (intros sg Hin; apply Hrest; right; exact Hin).
    inversion Hlx as [|? ? Hlx1 Hlx']; subst. cbn [fst] in Hlx1.
    destruct (c15_rest_src_tl_tag ((tg, T') :: r) tl Hrest Hne Htl) as [Htl1 Hne1].
    destruct (lex_stretch uni_letter uni_digit letter_ascii digit_ascii letter_eof digit_eof inp (length T) T (le_n _) l pcs _ Hs Hpl Htl1 Hpc ltac:(intros _; apply Hop; reflexivity))
      as (k1 & l1 & its & st' & Hst1 & Hsh1 & Hdd1 & Hend).
    destruct Hend as [(A & _)|(_ & -> & Ho1 & Hs1)]; [exfalso; exact (Hne1 A)|].
    cbn [c15_rest_src] in Hs1. rewrite <- !app_assoc in Hs1.
    (* whatever the tag: its items [toks], then the rest of the body behind its "}" *)
    assert (Hcont : forall k2 l2 toks, steps uni_letter uni_digit inp 0 k2 LLeftDelim l1 = Ok (LText, l2) -> span inp l2 [] (T' ++ c15_rest_src r ++ tl) ->
              l_out l2 = rev toks ++ l_out l1 -> t_val (l_last l2) = [125] -> l_dd l2 = false ->
              (forall term items, c15_gshapeT c15_X1 term pcs' rp' items -> c15_gshapeT c15_X1 term pcs ((tg, pcs') :: rp') (its ++ toks ++ items)) ->
              exists k l' items, steps uni_letter uni_digit inp 0 k LText l = Ok (LLeftDelim, l') /\ span inp l' [] tl /\ l_out l' = rev items ++ l_out l /\
                forall term, c15_gshapeT c15_X1 term pcs ((tg, pcs') :: rp') (items ++ term)).
    { intros k2 l2 toks Hst2 Hs2 Ho2 Hv2 Hdd2 Hsh.
      assert (Hpw : pwof 0 l2 = false) by (unfold pwof; rewrite Hv2; reflexivity).
      destruct (IH rp' T' pcs' l2 tl Hne Htl Hs2 Hdd2 ltac:(rewrite Hpw; exact Hok') ltac:(rewrite Hpw; exact Hpc') Hrest' Hlx' Hrp')
        as (k3 & l3 & items & Hst3 & Hs3 & Ho3 & Hsh3).
      exists (k1 + (k2 + k3))%nat, l3, (its ++ toks ++ items). split.
      { rewrite (steps_app _ _ _ _ k1 _ _ _ _ _ Hst1), (steps_app _ _ _ _ k2 _ _ _ _ _ Hst2). exact Hst3. }
      split; [exact Hs3|]. split; [rewrite Ho3, Ho2, Ho1, !rev_app_distr, <- !app_assoc; reflexivity|].
      intros term. rewrite <- !app_assoc. apply Hsh, Hsh3. }
    destruct tg as [[n o]|n txt]; cbn [c15_tag_ok c15_tag_src] in Hcmd, Hs1.
    + rewrite <- ?app_assoc in Hs1. cbn [app] in Hs1. destruct Hcmd as [Hcmd|(sp & Hsp & Hname & Hcl)].
      * destruct (lex_special_cmd uni_letter uni_digit letter_ascii digit_ascii letter_eof digit_eof inp l1 n o _ Hcmd Hs1)
          as (k2 & l2 & ld & c & rd & Hst2 & Hs2 & Ho2 & Hld & Hrd & Hc & Hla2 & Hv2 & Hdd2).
        apply (Hcont k2 l2 [ld; c; rd] Hst2 Hs2 Ho2 ltac:(rewrite Hla2; exact Hv2) Hdd2).
        intros term items Hsh. eapply gtt_text; [exact Hsh1|apply ti_cmd; assumption|exact Hsh].
      * cbn [fst snd] in Hname, Hcl. subst n.
        destruct (lex_literal_cmd uni_letter uni_digit letter_ascii digit_ascii letter_eof digit_eof inp l1 sp o _ Hsp Hs1 Hcl)
          as (k2 & l2 & ld & kw & rd & tx & ld2 & ke & rd2 & Hst2 & Hs2 & Ho2 & A1 & A2 & A3 & A4 & A5 & A6 & A7 & A8 & Hla2 & Hv2 & Hdd2).
        apply (Hcont k2 l2 [ld; kw; rd; tx; ld2; ke; rd2] Hst2 Hs2 Ho2 ltac:(rewrite Hla2; exact Hv2) Hdd2).
        intros term items Hsh. eapply gtt_text; [exact Hsh1|apply ti_lit; assumption|exact Hsh].
    + destruct Hcmd as [Hwf Hp].
      destruct (lex_print_tag uni_letter uni_digit letter_ascii digit_ascii letter_eof digit_eof inp l1 n txt (T' ++ c15_rest_src r ++ tl) Hwf Hlx1 Hp Hs1)
        as (k2 & l2 & ld & mid & Hst2 & Hs2 & Ho2 & Hld & Hm & Hv2 & Hdd2).
      apply (Hcont k2 l2 (ld :: mid) Hst2 Hs2 Ho2 Hv2 Hdd2).
      intros term items Hsh. eapply gtt_print; [exact Hsh1|exact Hld|exact Hm|exact Hsh].
Qed.

Theorem lex_template_file_tags name T0 rest pcs rp :
  tpl_name_ok name -> c15_tpl_ok print_node T0 rest -> c15_lex_oks rest -> pieces MText false [] T0 = Some pcs -> c15_rest_pieces rest rp ->
  exists ld0 tk di rd0 body ld2 te rd2 e,
    lex_items uni_letter uni_digit (lex_budget (c15_tpl_file name T0 rest)) false (c15_tpl_file name T0 rest)
      = Ok (ld0 :: tk :: di :: rd0 :: body ++ [ld2; te; rd2; e]) /\
    t_typ ld0 = itemLeftDelim /\ t_typ tk = itemTemplate /\ t_typ di = itemDotIdent /\ t_val di = 46 :: name /\ t_typ rd0 = itemRightDelim /\
    t_typ ld2 = itemLeftDelim /\ t_typ te = itemTemplateEnd /\ t_typ rd2 = itemRightDelim /\ t_typ e = itemEOF /\
    forall term, c15_gshapeT c15_X1 term pcs rp (body ++ term).
Proof.
  intros Hname [Hok0 Hokr] Hlx Hpc Hrp.
  apply (lex_template_around uni_letter uni_digit letter_ascii digit_ascii letter_eof digit_eof
           (fun body => forall term, c15_gshapeT c15_X1 term pcs rp (body ++ term)) name (c15_body_src T0 rest) Hname).
  intros inp l Hs Hdd Hpw. unfold c15_body_src in Hs. rewrite <- app_assoc in Hs. rewrite Forall_forall in Hokr.
  apply (lex_tags_run_tl inp rest rp T0 pcs l tpl_close ltac:(discriminate) ltac:(right; eexists; reflexivity) Hs Hdd
           ltac:(rewrite Hpw; exact Hok0) ltac:(rewrite Hpw; exact Hpc) Hokr Hlx Hrp).
Qed.

End Scan.

Notation stream := ExprParserRules.stream.
Notation inv := ExprParserRules.inv.

Lemma start_not_template_end t : mem t expr_start_types = true -> one_of t u_template = false.
Proof. exact (start_not_until u_template eq_refl t). Qed.

Section RunT.
Variable inlen : N.
Variable lexq : bstr -> list tok.
Variable unq : bstr -> option bstr.
Variable g : nat.
Variable until : list N.
Hypothesis Hut : one_of pit_Text until = false.
Hypothesis Hul : one_of pit_LeftDelim until = false.
Hypothesis Hus : forall t o, assoc t parser_special_chars = Some o -> one_of t until = false.
Hypothesis Hult : one_of pit_Literal until = false.
Hypothesis Hstart : forall t, mem t expr_start_types = true -> one_of t until = false.
Notation PE g := (lift_expr inlen parse_expr g).
Notation IL g := (item_list inlen lexq unq parse_expr expr_fuel g).
Notation LOOP := (item_list_loop inlen lexq unq parse_expr expr_fuel (PE g) (IL g) g).

Lemma gshapeT_run : forall ld u l pcs rp items, c15_gshapeT c15_X0 (ld :: u :: l) pcs rp items ->
  t_typ ld = pit_LeftDelim -> one_of (t_typ u) until = true -> Forall no_nul pcs -> tags_wf rp ->
  forall pre, Forall is_comment pre -> forall f acc pos s,
  stream (c_p s) = pre ++ items -> inv (c_p s) -> (length (pre ++ items) + 2 <= g)%nat -> (length items <= f)%nat ->
  LOOP f until pos acc s = CFuel \/
  exists pos' nodes s', LOOP f until pos acc s = COk (NList pos' (acc ++ nodes)) s' /\ stream (c_p s') = l /\ inv (c_p s') /\
     c15_view0 (map cps_strip nodes) = gs_out (flag pre) pcs rp.
Proof using Hut Hul Hus Hult Hstart.
  intros ld u l pcs rp items Hsh Hld Hu. induction Hsh as [pcs its Hps|pcs its c o tg pcs' rest items' Hps Htg Hsh IH|pcs its n txt ld1 mid pcs' rest items' Hps Hld1 HX Hsh IH];
    intros Hnn Hnr pre Hpre f acc pos s Hs Hi Hlf Hf; rewrite !app_length in Hlf; rewrite !app_length in Hf.
  - right.
    destruct (stretch_nodes_u inlen lexq unq parse_expr expr_fuel (PE g) (IL g) g until Hut Hul Hus Hult pcs its Hps Hnn pre Hpre ld (u :: l) acc pos s
                ltac:(rewrite Hld; discriminate) ltac:(rewrite Hld; discriminate) Hs Hi ltac:(rewrite app_length; lia))
      as (k & pre' & nodes & pos' & s' & Hk & Hpre' & Hlen & Hraw & Hcat & Hst & Hiv & Hrun).
    rewrite app_length in Hlen. cbn [length] in Hf, Hlf. replace f with (k + S (f - k - 1))%nat by lia. rewrite Hrun.
    destruct (halt_iter inlen lexq unq parse_expr expr_fuel (PE g) (IL g) g until Hut Hul Hus Hult pre' ld u l pos' (acc ++ nodes) s' (f - k - 1) Hpre' Hld Hu Hst Hiv
                ltac:(lia)) as (pos1 & s'' & Hrun2 & Hs'' & Hi'').
    exists pos1, nodes, s''. split; [exact Hrun2|]. split; [exact Hs''|]. split; [exact Hi''|].
    exact (gs_out_end _ _ _ Hraw Hcat).
  - inversion Hnr as [|? ? [Hnn' _] Hnr']; subst. cbn [snd] in Hnn'.
    destruct (text_seg_run inlen lexq unq parse_expr expr_fuel (PE g) (IL g) g until Hut Hul Hus Hult
                pcs its o tg pre items' acc pos s Hps Hnn Htg Hpre Hs Hi ltac:(rewrite app_length; lia))
      as (k & nodes & p & pos1 & s2 & Hk & Hraw & Hcat & Hs2 & Hi2 & Hrun).
    destruct (tagitems_head o tg Htg) as (ld0 & tg' & -> & _). cbn [length] in Hf, Hlf.
    replace f with (k + S (f - k - 1))%nat by lia. rewrite Hrun.
    destruct (IH Hnn' Hnr' [] ltac:(constructor) (f - k - 1)%nat ((acc ++ nodes) ++ [NRawText p o]) (Some pos1) s2 Hs2 Hi2 ltac:(cbn [app]; lia) ltac:(lia))
      as [Hfu|(pos2 & nodes2 & s3 & Hrun3 & Hs3 & Hi3 & Hv3)]; [left; exact Hfu|right].
    exists pos2, (nodes ++ NRawText p o :: nodes2), s3. split; [rewrite Hrun3, <- !app_assoc; reflexivity|]. split; [exact Hs3|]. split; [exact Hi3|].
    exact (gs_out_text _ _ _ _ _ _ _ _ _ Hraw Hcat Hv3).
  - inversion Hnr as [|? ? [Hnn' Hwfn] Hnr']; subst. cbn [snd fst] in Hnn', Hwfn. red in HX. subst mid.
    destruct (print_seg_run inlen lexq unq g until Hut Hul Hus Hult Hstart pcs its n ld1 pre items' acc pos s Hps Hnn Hwfn Hld1 Hpre Hs Hi ltac:(rewrite app_length; lia))
      as (k & nodes & Hk & Hraw & Hcat & Hcases).
    cbn [length] in Hf, Hlf. replace f with (k + S (f - k - 1))%nat by lia.
    destruct Hcases as [Hfu|(pos1 & s2 & Hs2 & Hi2 & Hrun)]; [left; apply Hfu|]. rewrite Hrun.
    destruct (IH Hnn' Hnr' [] ltac:(constructor) (f - k - 1)%nat ((acc ++ nodes) ++ [strip_pos n]) (Some pos1) s2 Hs2 Hi2 ltac:(cbn [app]; lia) ltac:(lia))
      as [Hfu2|(pos2 & nodes2 & s3 & Hrun3 & Hs3 & Hi3 & Hv3)]; [left; exact Hfu2|right].
    exists pos2, (nodes ++ strip_pos n :: nodes2), s3. split; [rewrite Hrun3, <- !app_assoc; reflexivity|]. split; [exact Hs3|]. split; [exact Hi3|].
    exact (gs_out_print _ _ _ _ _ _ _ _ Hwfn Hraw Hcat Hv3).
Qed.
End RunT.

Lemma cps_strip_tpl_inv x pos tp nm bpos nodes ae pv : cps_strip x = cps_strip (NList pos [NTemplate tp nm (NList bpos nodes) ae pv]) ->
  exists pos' tp' bpos' nodes', x = NList pos' [NTemplate tp' nm (NList bpos' nodes') ae pv] /\ map cps_strip nodes' = map cps_strip nodes.
Proof.
  intros H. destruct x; cbn in H; try discriminate H. injection H as H.
  match type of H with map cps_strip ?l0 = _ => destruct l0 as [|t' [|t2 r2]]; cbn [map] in H; try discriminate H end.
  injection H as H. destruct t'; cbn in H; try discriminate H. injection H as Enm Ebody Eae Epv. subst.
  match type of Ebody with cps_strip ?b0 = _ => destruct b0; cbn in Ebody; try discriminate Ebody end. injection Ebody as Ebody.
  eexists _, _, _, _. split; [reflexivity|exact Ebody].
Qed.

Section FileT.
Variable inlen : N.
Variable lexq : bstr -> list tok.
Variable unq : bstr -> option bstr.

Lemma tags_template_file_run ld0 tk di rd0 bodyT ld2 te rd2 e pcs rp :
  t_typ ld0 = pit_LeftDelim -> t_typ tk = pit_Template -> t_typ di = pit_DotIdent -> t_typ rd0 = pit_RightDelim ->
  c15_gshapeT c15_X0 [ld2; te; rd2; e] pcs rp bodyT ->
  t_typ ld2 = pit_LeftDelim -> t_typ te = pit_TemplateEnd -> t_typ rd2 = pit_RightDelim -> t_typ e = pit_EOF ->
  Forall no_nul pcs -> tags_wf rp ->
  item_list inlen lexq unq parse_expr expr_fuel (S (S (length (ld0 :: tk :: di :: rd0 :: bodyT) + 6))) u_eof (cst_init (ld0 :: tk :: di :: rd0 :: bodyT)) = CFuel \/
  exists pos tp nm ae pv bpos nodes s',
    item_list inlen lexq unq parse_expr expr_fuel (S (S (length (ld0 :: tk :: di :: rd0 :: bodyT) + 6))) u_eof (cst_init (ld0 :: tk :: di :: rd0 :: bodyT))
      = COk (NList pos [NTemplate tp nm (NList bpos nodes) ae pv]) s' /\
    c15_view0 (map cps_strip nodes) = gs_out false pcs rp.
Proof.
  intros Hld0 Htk Hdi Hrd0 Hbody Hld2 Hte Hrd2 He Hnn Hnr.
  set (g1 := (length (ld0 :: tk :: di :: rd0 :: bodyT) + 6)%nat).
  destruct (template_file_run inlen lexq unq ld0 tk di rd0 bodyT (S g1) Hld0 Htk Hdi Hrd0 ltac:(lia)) as (pos1 & s5 & Hs5 & Hi5 & Hrun).
  rewrite Hrun. cbn [item_list].
  destruct (gshapeT_run inlen lexq unq g1 u_template eq_refl eq_refl special_not_template_end eq_refl start_not_template_end
              ld2 te [rd2; e] pcs rp bodyT Hbody Hld2 ltac:(rewrite Hte; reflexivity) Hnn Hnr [] ltac:(constructor) (S g1) [] None s5 Hs5 Hi5
              ltac:(unfold g1; cbn [app length]; lia) ltac:(unfold g1; cbn [length]; lia))
    as [Hbf|(bpos & nodes & s6 & Hbd & Hs6 & Hi6 & Hv)].
  - left. rewrite Hbf. reflexivity.
  - right. rewrite Hbd. cbn [cbind app].
    destruct (mx_expect inlen pit_RightDelim x_template s6 rd2 _ Hs6 Hi6 Hrd2) as (s7 & He7 & Hs7 & Hi7). rewrite He7. cbn [cbind].
    destruct (eof_iter inlen lexq unq parse_expr expr_fuel (lift_expr inlen parse_expr (S g1)) (item_list inlen lexq unq parse_expr expr_fuel (S g1)) (S g1)
                [] e [] g1 (Some pos1) [NTemplate (t_pos tk) (c_ns s6 ++ t_val di) (NList bpos nodes) 0 false] s7 ltac:(constructor) He Hs7 Hi7 ltac:(cbn [length]; lia))
      as (pos2 & s' & Hend).
    exists pos2, (t_pos tk), (c_ns s6 ++ t_val di), 0, false, bpos, nodes, s'. split; [exact Hend|exact Hv].
Qed.

Hypothesis Hq : lexq_wf lexq.

Lemma soy_file_tpl_tags ld0 tk di rd0 body ld2 te rd2 e pcs rp :
  t_typ ld0 = pit_LeftDelim -> t_typ tk = pit_Template -> t_typ di = pit_DotIdent -> t_typ rd0 = pit_RightDelim ->
  (forall term, c15_gshapeT c15_X1 term pcs rp (body ++ term)) ->
  t_typ ld2 = pit_LeftDelim -> t_typ te = pit_TemplateEnd -> t_typ rd2 = pit_RightDelim -> t_typ e = pit_EOF ->
  items_wf inlen (ld0 :: tk :: di :: rd0 :: body ++ [ld2; te; rd2; e]) -> Forall no_nul pcs -> tags_wf rp ->
  exists pos tp nm ae pv bpos nodes st,
    po_result (soy_file inlen lexq unq (ld0 :: tk :: di :: rd0 :: body ++ [ld2; te; rd2; e])) = POk (NList pos [NTemplate tp nm (NList bpos nodes) ae pv]) st /\
    c15_view0 (map cps_strip nodes) = gs_out false pcs rp.
Proof.
  intros Hld0 Htk Hdi Hrd0 Hbody Hld2 Hte Hrd2 He Hw Hn0 Hnr.
  change (ld0 :: tk :: di :: rd0 :: body ++ [ld2; te; rd2; e]) with ([ld0; tk; di; rd0] ++ body ++ [ld2; te; rd2; e]) in *.
  apply Forall_app in Hw. destruct Hw as [Hwh Hwb].
  destruct (gshapeT_erase inlen [ld2; te; rd2; e] pcs rp _ (Hbody _) Hwb) as (bodyT & Hsh0 & Hst & Hw0 & Hlen).
  destruct (soy_file_erased inlen lexq unq Hq
              (fun x => exists pos tp nm ae pv bpos nodes, x = NList pos [NTemplate tp nm (NList bpos nodes) ae pv] /\ c15_view0 (map cps_strip nodes) = gs_out false pcs rp)
              ([ld0; tk; di; rd0] ++ bodyT) ([ld0; tk; di; rd0] ++ body ++ [ld2; te; rd2; e]) (S (S (length (ld0 :: tk :: di :: rd0 :: bodyT) + 6))))
    as (x & x0 & st & Hr & Hx & pos & tp & nm & ae & pv & bpos & nodes & -> & Hv).
  - unfold file_fuel. cbn [app length]. lia.
  - rewrite (map_app _ _ bodyT), Hst. symmetry. apply map_app.
  - apply Forall_app. split; assumption.
  - rewrite (app_length _ bodyT), Hlen. symmetry. apply app_length.
  - destruct (tags_template_file_run ld0 tk di rd0 bodyT ld2 te rd2 e pcs rp Hld0 Htk Hdi Hrd0 Hsh0 Hld2 Hte Hrd2 He Hn0 Hnr)
      as [Hfu|(pos & tp & nm & ae & pv & bpos & nodes & s' & Hrun & Hv)]; [left; exact Hfu|right].
    exists (NList pos [NTemplate tp nm (NList bpos nodes) ae pv]), s'. split; [exact Hrun|eauto 10].
  - destruct (cps_strip_tpl_inv _ _ _ _ _ _ _ _ (eq_sym Hx)) as (pos' & tp' & bpos' & nodes' & -> & Hn').
    eexists _, _, _, _, _, _, _, _. split; [exact Hr|]. rewrite Hn'. exact Hv.
Qed.
End FileT.

Section TopT.
Variable uni_letter uni_digit : Z -> bool.
Hypothesis letter_ascii : forall c, (c < 128)%N -> uni_letter (Z.of_N c) = ((65 <=? c) && (c <=? 90) || (97 <=? c) && (c <=? 122))%N.
Hypothesis digit_ascii : forall c, (c < 128)%N -> uni_digit (Z.of_N c) = digit_b c.
Hypothesis letter_eof : uni_letter (-1)%Z = false.
Hypothesis digit_eof : uni_digit (-1)%Z = false.
Variable lexq : bstr -> list tok.
Variable unq : bstr -> option bstr.
Hypothesis Hq : lexq_wf lexq.

Lemma c15_tpl_rest_ok rest : Forall (fun sg : c15_tseg => c15_tag_ok print_node (fst sg) /\ mix_stretch_ok false false (snd sg)) rest ->
  forall rp, c15_rest_pieces rest rp -> tags_wf rp.
Proof.
  intros Hok rp. apply c15_rest_tags_wf. eapply Forall_impl; [|exact Hok]. intros sg (Htg & [Hpl _]). split; assumption.
Qed.

(* body_text_spec for the body of a template with print commands among the tags, as a statement about a whole file *)
Theorem template_body_tags_impl_spec name T0 rest out : tpl_name_wf name -> c15_tpl_ok print_node T0 rest -> c15_lex_oks rest ->
  c15_tpl_out T0 rest = Some out ->
  exists items pos tp nm ae pv bpos nodes st,
    lex_items uni_letter uni_digit (lex_budget (c15_tpl_file name T0 rest)) false (c15_tpl_file name T0 rest) = Ok items /\
    po_result (soy_file (N.of_nat (length (c15_tpl_file name T0 rest))) lexq unq items)
      = POk (NList pos [NTemplate tp nm (NList bpos nodes) ae pv]) st /\
    c15_view0 (map cps_strip nodes) = out.
Proof.
  intros Hname Hok Hlx Hout. destruct (c15_out_pieces false T0 rest out Hout) as (pcs & rp & Hp & Hrp & <-).
  destruct (lex_template_file_tags uni_letter uni_digit letter_ascii digit_ascii letter_eof digit_eof name T0 rest pcs rp (tpl_name_wf_ok _ Hname) Hok Hlx Hp Hrp)
    as (ld0 & tk & di & rd0 & body & ld2 & te & rd2 & e & Hlex & A1 & A2 & A3 & _ & A4 & A5 & A6 & A7 & A8 & Hsh).
  destruct Hok as [[Hpl0 _] Hokr].
  destruct (soy_file_tpl_tags _ lexq unq Hq ld0 tk di rd0 body ld2 te rd2 e pcs rp A1 A2 A3 A4 Hsh A5 A6 A7 A8
              (lex_items_wf uni_letter uni_digit letter_eof digit_eof _ _ Hlex) (pieces_no_nul _ _ _ Hpl0 Hp) (c15_tpl_rest_ok rest Hokr rp Hrp))
    as (pos & tp & nm & ae & pv & bpos & nodes & st & A & B).
  exists (ld0 :: tk :: di :: rd0 :: body ++ [ld2; te; rd2; e]), pos, tp, nm, ae, pv, bpos, nodes, st. auto.
Qed.
End TopT.
