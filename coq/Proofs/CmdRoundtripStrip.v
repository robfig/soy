(* C17 at command level: the body round trip for the items a scanner really sends.  The token-level
   theorem (Proofs/CmdRoundtrip.v) speaks about [body_toks x], whose items carry node positions and
   0 elsewhere; the command-level parser does not look at positions on its successful runs
   (Proofs/CmdParserStripMain.v), so ANY item list that agrees with [body_toks x] in types and texts
   is read as [x] up to positions, under the budget of the model's entry points. *)
From Soy Require Import Model.Bytes Model.Outcome Model.Num Model.Ast Model.Token Model.RawText Model.ExprParser Model.Parser Generated.Tables
  Model.AstPrint Model.AstPrintCmd Spec.ExprSyntax Spec.CmdSyntax Proofs.ExprParserRules Proofs.ExprParserStrip
  Proofs.CmdRoundtripBase Proofs.CmdRoundtripRules Proofs.CmdRoundtrip Proofs.ExprParserMono
  Proofs.CmdParserStripDefs Proofs.CmdParserStripMain.
From Coq Require Import Lia.
Open Scope N_scope.

Lemma strip_tok_of_tv (its ts : list tok) :
  map (fun t => (t_typ t, t_val t)) its = map (fun t => (t_typ t, t_val t)) ts -> map strip_tok its = map strip_tok ts.
Proof.
  revert ts. induction its as [|a its IH]; intros [|c ts] H; try discriminate H; [reflexivity|].
  cbn [map] in H |- *. injection H as H1 H2 H3. rewrite (IH ts H3). unfold strip_tok. rewrite H1, H2. reflexivity.
Qed.

Theorem body_roundtrip_any_positions (inlen inlen' : N) (lexq : bstr -> list tok) (unq : bstr -> option bstr) :
  (forall s q, go_quote s = Some q -> unq q = Some s) ->
  forall x until u rest its,
  wf_body lexq (nameok [] []) false x -> good_until until = true -> one_of (t_typ u) until = true ->
  map strip_tok its = map strip_tok (body_toks x ++ T_ldelim :: u :: rest) ->
  exists f0, forall f, (f0 <= f)%nat ->
    exists x' s', item_list inlen' lexq unq parse_expr expr_fuel f until (cst_init its) = COk x' s' /\ cps_strip x' = cps_strip x.
Proof.
  intros Hunq x until u rest its Hwf Hg Hu Hits.
  set (ts := body_toks x ++ T_ldelim :: u :: rest) in *.
  destruct (parse_body_roundtrip [] [] inlen lexq unq expr_fuel expr_fuel_ok Hunq false x until u rest Hwf Hg Hu
              (cst_init ts) (pst_init ts) [] (stream_init ts) (conj eq_refl (conj eq_refl eq_refl)))
    as (p' & sc' & _ & f0 & HF).
  exists f0. intros f Hf. specialize (HF f f Hf Hf).
  change (set_ps (cst_init ts) (pst_init ts) []) with (cst_init ts) in HF.
  destruct (cps_body_expr_fuel inlen inlen' lexq unq f until ts its x _ (eq_sym Hits) HF) as (x' & s' & E & Hx).
  exists x', s'. split; [exact E | symmetry; exact Hx].
Qed.
