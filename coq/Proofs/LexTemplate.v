(* C15, scanner half for a minimal file: "{template .name}" body "{/template}" where the body is
   T0 {c1} T1 ... {cn} Tn with comments in the stretches (Spec/TextMix.v).  The template tag, the closing
   tag, and the body run of Proofs/LexBodyMixMain.v restated for a body that is followed by a tag. *)
From Soy Require Import Model.Bytes Model.Utf8 Model.Outcome Model.Token Generated.Tables Model.Lexer Spec.Text Spec.TextBody Spec.TextMix
  Proofs.LexerPrim Proofs.LexerStates Proofs.LexerProofs Proofs.LexTokens Proofs.LexPrintTop
  Proofs.LexBodyText Proofs.LexBodyTop Proofs.LexBodySeg Proofs.LexBodyCmd Proofs.LexBodyC17 Proofs.LexBodyLit Proofs.LexBodyMix Proofs.LexBodyMixMain.
From Coq Require Import ZifyBool Lia.
Open Scope Z_scope.

Definition w_template : bstr := Eval vm_compute in b "template".
Definition w_end_template : bstr := Eval vm_compute in b "/template".
(* the source of the two tags; [name] is the template's name without its dot *)
Definition tpl_open (name : bstr) : bstr := [123%N] ++ w_template ++ [32%N; 46%N] ++ name ++ [125%N].
Definition tpl_close : bstr := [123%N] ++ w_end_template ++ [125%N].
Definition tpl_name_ok (name : bstr) : Prop :=
  forallb (fun c => (c <? 128)%N && alnum_b c) name = true /\ head_digit name = false.

(* a body whose items end with the items [term] of what follows it *)
Inductive mshapeT (term : list tok) : list bstr -> list (bstr * list bstr) -> list tok -> Prop :=
| mt_end pcs its : pshape pcs its -> mshapeT term pcs [] (its ++ term)
| mt_tag pcs its o tg pcs' rest items :
    pshape pcs its -> tagitems o tg -> mshapeT term pcs' rest items -> mshapeT term pcs ((o, pcs') :: rest) (its ++ tg ++ items).

Section Tpl.
Variable uni_letter uni_digit : Z -> bool.
Hypothesis letter_ascii : forall c, (c < 128)%N -> uni_letter (Z.of_N c) = ((65 <=? c) && (c <=? 90) || (97 <=? c) && (c <=? 122))%N.
Hypothesis digit_ascii : forall c, (c < 128)%N -> uni_digit (Z.of_N c) = digit_b c.
Hypothesis letter_eof : uni_letter (-1) = false.
Hypothesis digit_eof : uni_digit (-1) = false.
Variable inp : bstr.
Notation steps := (steps uni_letter uni_digit inp 0).
Notation span := (span inp).
Notation ilen := (Z.of_nat (length inp)).

(* "{template .name}" *)
Lemma lex_tpl_open l name s : tpl_name_ok name -> span l [] (tpl_open name ++ s) ->
  exists k l' ld kw di rd, steps k LLeftDelim l = Ok (LText, l') /\ span l' [] s /\ l_out l' = rd :: di :: kw :: ld :: l_out l /\
    t_typ ld = itemLeftDelim /\ t_typ kw = itemTemplate /\ t_typ di = itemDotIdent /\ t_val di = 46%N :: name /\ t_typ rd = itemRightDelim /\
    l_last l' = rd /\ t_val rd = [125%N] /\ l_dd l' = false.
Proof.
  intros [Hname Hhd] Hs. unfold tpl_open, w_template in Hs.
  assert (Hs' : span l [] (123%N :: 116%N :: [101; 109; 112; 108; 97; 116; 101]%N ++ 32%N :: 46%N :: name ++ 125%N :: s)).
  { cbn [app] in Hs. rewrite <- app_assoc in Hs. exact Hs. }
  destruct (lb17_open_word uni_letter uni_digit letter_ascii digit_ascii letter_eof digit_eof inp l 116%N [101; 109; 112; 108; 97; 116; 101]%N itemTemplate _
              eq_refl eq_refl eq_refl eq_refl ltac:(discriminate) ltac:(discriminate) Hs' (conj eq_refl eq_refl))
    as (l2 & ld & kw & Hst2 & Hs2 & Ho2 & Hld & _ & Hkw & _ & Hla2 & Hdd2).
  destruct (lex_space uni_letter uni_digit inp 0 l2 32%N _ Hs2 eq_refl) as (l3 & Hst3 & Hs3 & (Ho3 & Hla3 & Hdd3)).
  destruct (lex_dot uni_letter uni_digit letter_ascii digit_ascii letter_eof digit_eof inp 0 l3 name (125%N :: s) Hs3 Hname (conj eq_refl eq_refl))
    as (l4 & Hst4 & Hs4 & (p4 & Ho4 & Hla4 & Hdd4)).
  assert (Hhd' : head_digit (name ++ 125%N :: s) = false).
  { destruct name as [|a name']; [reflexivity|exact Hhd]. }
  rewrite Hhd' in Ho4, Hla4.
  destruct (close_brace uni_letter uni_digit letter_eof digit_eof inp l4 s Hs4 ltac:(congruence)) as (l5 & p5 & Hst5 & Hs5 & Ho5 & Hla5 & Hdd5).
  exists (4 + (1 + (2 + 2)))%nat, l5. do 4 eexists. split.
  { rewrite (steps_app _ _ _ _ 4 _ _ _ _ _ Hst2), (steps_app _ _ _ _ 1 _ _ _ _ _ Hst3), (steps_app _ _ _ _ 2 _ _ _ _ _ Hst4). exact Hst5. }
  split; [exact Hs5|]. split; [rewrite Ho5, Ho4, Ho3, Ho2; reflexivity|]. cbn [t_typ t_val]. repeat split; assumption.
Qed.

(* "{/template}" *)
Lemma lex_tpl_close l s : span l [] (tpl_close ++ s) ->
  exists k l' ld te rd, steps k LLeftDelim l = Ok (LText, l') /\ span l' [] s /\ l_out l' = rd :: te :: ld :: l_out l /\
    t_typ ld = itemLeftDelim /\ t_typ te = itemTemplateEnd /\ t_typ rd = itemRightDelim /\ l_dd l' = false.
Proof.
  intros Hs.
  destruct (lb17_close_cmd uni_letter uni_digit letter_ascii digit_ascii letter_eof digit_eof inp l [116; 101; 109; 112; 108; 97; 116; 101]%N
              itemTemplateEnd s ltac:(unfold lb17_close_kws; cbn [In]; tauto) Hs)
    as (l' & ld & te & rd & Hst & Hs' & Ho & Hld & _ & Hte & _ & Hrd & _ & _ & Hdd).
  exists 5%nat, l', ld, te, rd. auto 10.
Qed.

Lemma rest_src_tl_tag r tl : tl <> [] -> tag_or_end tl -> tag_or_end (rest_src r ++ tl) /\ rest_src r ++ tl <> [].
Proof.
  intros Hne Htl. destruct r as [|[[n o] T] r'].
  - cbn [rest_src app]. auto.
  - split; [right; eexists; reflexivity|discriminate].
Qed.

(* the body, followed by a tag: the scanner stops in front of it *)
Lemma lex_mix_run_tl : forall rest rp T pcs l tl, tl <> [] -> tag_or_end tl ->
  span l [] (T ++ rest_src rest ++ tl) -> l_dd l = false ->
  mix_stretch_ok (pwof 0 l) false T -> pieces MText (pwof 0 l) [] T = Some pcs ->
  (forall sg, In sg rest -> cmd_ok (fst sg) /\ mix_stretch_ok false false (snd sg)) -> rest_pieces rest rp ->
  exists k l' items, steps k LText l = Ok (LLeftDelim, l') /\ span l' [] tl /\ l_out l' = rev items ++ l_out l /\
    forall term, mshapeT term pcs rp (items ++ term).
Proof.
  induction rest as [|[[n o] T'] r IH]; intros rp T pcs l tl Hne Htl Hs Hdd [Hpl Hop] Hpc Hrest Hrp.
  - destruct rp; [|contradiction]. cbn [rest_src app] in Hs.
    destruct (lex_stretch uni_letter uni_digit letter_ascii digit_ascii letter_eof digit_eof inp (length T) T (le_n _) l pcs tl Hs Hpl Htl Hpc ltac:(intros _; apply Hop; reflexivity))
      as (k & l' & its & st' & Hst & Hsh & _ & Hend).
    destruct Hend as [(A & _)|(_ & -> & Ho & Hs')]; [congruence|].
    exists k, l', its. split; [exact Hst|]. split; [exact Hs'|]. split; [exact Ho|]. intros term. apply mt_end. exact Hsh.
  - destruct rp as [|[o' pcs'] rp']; [contradiction|]. cbn [rest_pieces] in Hrp. destruct Hrp as (-> & Hpc' & Hrp').
    destruct (Hrest _ (or_introl eq_refl)) as (Hcmd & Hok'). cbn [fst snd] in Hcmd, Hok'.
    assert (Hrest' : forall sg, In sg r -> cmd_ok (fst sg) /\ mix_stretch_ok false false (snd sg)) by (intros sg Hin; apply Hrest; right; exact Hin).
    assert (Hs0 : span l [] (T ++ rest_src (((n, o), T') :: r) ++ tl)) by exact Hs.
    destruct (rest_src_tl_tag (((n, o), T') :: r) tl Hne Htl) as [Htl1 Hne1].
    destruct (lex_stretch uni_letter uni_digit letter_ascii digit_ascii letter_eof digit_eof inp (length T) T (le_n _) l pcs _ Hs0 Hpl Htl1 Hpc ltac:(intros _; apply Hop; reflexivity))
      as (k1 & l1 & its & st' & Hst1 & Hsh1 & Hdd1 & Hend).
    destruct Hend as [(A & _)|(_ & -> & Ho1 & Hs1)]; [congruence|].
    cbn [rest_src] in Hs1. rewrite <- !app_assoc in Hs1. cbn [app] in Hs1. rewrite <- ?app_assoc in Hs1.
    destruct Hcmd as [Hcmd|(sp & Hsp & Hname & Hcl)].
    + assert (Hs1' : span l1 [] ([123%N] ++ n ++ [125%N] ++ T' ++ rest_src r ++ tl)) by exact Hs1.
      destruct (lex_special_cmd uni_letter uni_digit letter_ascii digit_ascii letter_eof digit_eof inp l1 n o _ Hcmd Hs1')
        as (k2 & l2 & ld & c & rd & Hst2 & Hs2 & Ho2 & Hld & Hrd & Hc & Hla2 & Hv2 & Hdd2).
      assert (Hpw : pwof 0 l2 = false) by (unfold pwof; rewrite Hla2, Hv2; reflexivity).
      destruct (IH rp' T' pcs' l2 tl Hne Htl Hs2 Hdd2 ltac:(rewrite Hpw; exact Hok') ltac:(rewrite Hpw; exact Hpc') Hrest' Hrp')
        as (k3 & l3 & items & Hst3 & Hs3 & Ho3 & Hsh).
      exists (k1 + (k2 + k3))%nat, l3, (its ++ [ld; c; rd] ++ items). split.
      { rewrite (steps_app _ _ _ _ k1 _ _ _ _ _ Hst1), (steps_app _ _ _ _ k2 _ _ _ _ _ Hst2). exact Hst3. }
      split; [exact Hs3|]. split.
      { rewrite Ho3, Ho2, Ho1, !rev_app_distr. cbn [rev app]. rewrite <- !app_assoc. reflexivity. }
      intros term. rewrite <- !app_assoc. eapply mt_tag; [exact Hsh1|apply ti_cmd; assumption|apply Hsh].
    + cbn [fst snd] in Hname, Hcl. subst n.
      assert (Hs1' : span l1 [] ([123%N] ++ lit_name_sp sp o ++ [125%N] ++ T' ++ rest_src r ++ tl)) by exact Hs1.
      destruct (lex_literal_cmd uni_letter uni_digit letter_ascii digit_ascii letter_eof digit_eof inp l1 sp o _ Hsp Hs1' Hcl)
        as (k2 & l2 & ld & kw & rd & tx & ld2 & ke & rd2 & Hst2 & Hs2 & Ho2 & A1 & A2 & A3 & A4 & A5 & A6 & A7 & A8 & Hla2 & Hv2 & Hdd2).
      assert (Hpw : pwof 0 l2 = false) by (unfold pwof; rewrite Hla2, Hv2; reflexivity).
      destruct (IH rp' T' pcs' l2 tl Hne Htl Hs2 Hdd2 ltac:(rewrite Hpw; exact Hok') ltac:(rewrite Hpw; exact Hpc') Hrest' Hrp')
        as (k3 & l3 & items & Hst3 & Hs3 & Ho3 & Hsh).
      exists (k1 + (k2 + k3))%nat, l3, (its ++ [ld; kw; rd; tx; ld2; ke; rd2] ++ items). split.
      { rewrite (steps_app _ _ _ _ k1 _ _ _ _ _ Hst1), (steps_app _ _ _ _ k2 _ _ _ _ _ Hst2). exact Hst3. }
      split; [exact Hs3|]. split.
      { rewrite Ho3, Ho2, Ho1, !rev_app_distr. cbn [rev app]. rewrite <- !app_assoc. reflexivity. }
      intros term. rewrite <- !app_assoc. eapply mt_tag; [exact Hsh1|apply ti_lit; assumption|apply Hsh].
Qed.

End Tpl.
