(* C17, print commands at text level: the scanner model on the string PrintNode.String() writes, composed with
   the parsePrint model and with the injectivity of the printed items; the "placeholders by text" statement
   with the scanner model in place of an abstract scanner. *)
From Soy Require Import Model.Bytes Model.Num Model.Values Model.Outcome Model.Ast Model.Token Model.NumLit Model.Quote
  Model.ExprParser Model.AstPrint Model.AstPrintCmd Generated.Tables Model.Lexer Model.MsgId Spec.ExprSyntax Spec.CmdSyntax
  Proofs.ExprParserRules Proofs.ExprParserProofs Proofs.ExprParserStrip Proofs.ExprParserFuel Proofs.PlaceholderTextProofs Proofs.MsgIdProofs
  Proofs.LexTokens Proofs.LexerProofs Proofs.LexPrintMain Proofs.LexPrintTop Proofs.LexParseText Proofs.LexPrintCmd Proofs.LexBodyC17Body.
From Coq Require Import ZifyBool Lia.
Open Scope N_scope.

Definition is_print (n : node) : Prop := match n with NPrint _ _ _ => True | _ => False end.

(* lex(name, String(n)) for a print command n: "{", the items of tokens_of_print n (types and texts), EOF:
   the body [n] of Proofs/LexBodyC17Body.v *)
Theorem lex_print_command (uni_letter uni_digit : Z -> bool) :
  (forall c, (c < 128)%N -> uni_letter (Z.of_N c) = ((65 <=? c) && (c <=? 90) || (97 <=? c) && (c <=? 122))%N) ->
  (forall c, (c < 128)%N -> uni_digit (Z.of_N c) = digit_b c) ->
  uni_letter (-1)%Z = false -> uni_digit (-1)%Z = false ->
  forall p arg dirs txt, wf_print (NPrint p arg dirs) -> lex_ok_print (NPrint p arg dirs) ->
  print_node (NPrint p arg dirs) = Some txt ->
  exists ld mid e, lex_items uni_letter uni_digit (lex_budget txt) false txt = Ok (ld :: mid ++ [e]) /\
    t_typ ld = itemLeftDelim /\ t_val ld = [123] /\ map tv mid = map tv (tokens_of_print (NPrint p arg dirs)) /\ t_typ e = itemEOF.
Proof.
  intros Hla Hda Hle Hde p arg dirs txt Hwf Hlo Hp.
  destruct (lb17_lex_body uni_letter uni_digit Hla Hda Hle Hde 0 [NPrint p arg dirs] (txt ++ [])
              (lb17_ok_cmd _ _ (lb17_ok_print _ _ _ Hwf Hlo) lb17_ok_nil)) as (its & e & Hlex & He & Hm).
  { rewrite lb17_print_list. cbn [map opt_all]. change (print_tree (NPrint p arg dirs)) with (print_node (NPrint p arg dirs)).
    rewrite Hp. reflexivity. }
  rewrite app_nil_r in Hlex. change (body_toks _) with ((T_ldelim :: tokens_of_print (NPrint p arg dirs)) ++ []) in Hm.
  rewrite app_nil_r in Hm. destruct its as [|ld mid]; [discriminate Hm|]. injection Hm as Ht Hv Hm.
  exists ld, mid, e. auto.
Qed.

Lemma lex_print_command_tbl n txt : wf_print n -> lex_ok_print n -> print_node n = Some txt ->
  exists ld mid e, lex_items is_letter_tbl is_digit_tbl (lex_budget txt) false txt = Ok (ld :: mid ++ [e]) /\
    t_typ ld = itemLeftDelim /\ t_val ld = [123] /\ map tv mid = map tv (tokens_of_print n) /\ t_typ e = itemEOF.
Proof.
  destruct n; cbn [wf_print]; try contradiction. intros Hwf Hlo Hp.
  destruct tables_ascii as [Hl Hd]. destruct tables_eof as [El Ed].
  exact (lex_print_command is_letter_tbl is_digit_tbl Hl Hd El Ed _ _ _ txt Hwf Hlo Hp).
Qed.

(* two print commands that print the same STRING are the same print command up to positions *)
Theorem print_command_string_injective n1 n2 txt :
  wf_print n1 -> lex_ok_print n1 -> wf_print n2 -> lex_ok_print n2 ->
  print_node n1 = Some txt -> print_node n2 = Some txt -> strip_pos n1 = strip_pos n2.
Proof.
  intros W1 L1 W2 L2 P1 P2.
  destruct (lex_print_command_tbl n1 txt W1 L1 P1) as (ld1 & mid1 & e1 & R1 & _ & _ & M1 & _).
  destruct (lex_print_command_tbl n2 txt W2 L2 P2) as (ld2 & mid2 & e2 & R2 & _ & _ & M2 & _).
  rewrite R1 in R2. injection R2 as _ Emid. apply app_inj_tail in Emid. destruct Emid as [-> _].
  apply print_command_injective; [exact W1|exact W2|]. apply tv_strip. rewrite <- M1, <- M2. reflexivity.
Qed.

(* the scanner's items for String(n), minus the opening "{", put through the parsePrint model: the command, up to positions *)
Theorem print_command_text_roundtrip p arg dirs txt :
  wf_print (NPrint p arg dirs) -> lex_ok_print (NPrint p arg dirs) -> print_node (NPrint p arg dirs) = Some txt ->
  exists ld its, lex_items is_letter_tbl is_digit_tbl (lex_budget txt) false txt = Ok (ld :: its) /\ t_typ ld = itemLeftDelim /\
    exists f0, forall f q, (f0 <= f)%nat ->
      exists n' st', parse_print f q (pst_init its) = POk n' st' /\ strip_pos n' = strip_pos (NPrint p arg dirs).
Proof.
  intros Hwf Hlo Hp.
  destruct (lex_print_command_tbl _ txt Hwf Hlo Hp) as (ld & mid & e & Hlex & Hld & _ & Hm & He).
  exists ld, (mid ++ [e]). split; [exact Hlex|]. split; [exact Hld|].
  pose proof (wf_print_strip _ Hwf) as Hwf0. cbn [strip_pos] in Hwf0.
  destruct (parse_print_roundtrip_cmd 0 _ _ [strip_tok e] Hwf0) as (st0 & f0 & _ & HF).
  exists f0. intros f q Hf.
  pose proof (parse_print_sim f q (pst_init (mid ++ [e]))) as [Hsim _].
  rewrite zs_init, map_app in Hsim. cbn [map] in Hsim.
  assert (Hmid : map strip_tok mid = tokens_of_print (NPrint 0 (strip_pos arg) (map strip_pos dirs))).
  { change (NPrint 0 (strip_pos arg) (map strip_pos dirs)) with (strip_pos (NPrint p arg dirs)).
    unfold tokens_of_print. rewrite show_print_strip. apply tv_strip. exact Hm. }
  rewrite Hmid, (HF f Hf) in Hsim.
  destruct (zr_ok_inv _ _ _ _ Hsim) as (n' & st' & Hrun & Hn' & _). exists n', st'. split; [exact Hrun|exact Hn'].
Qed.

(* "the message extractor identifies placeholders by this text", with the scanner model: in the model of
   setPlaceholderNames two placeholders whose texts are those of well-formed, lexically well-formed print commands
   get the same name only if they are the same print command up to positions *)
Theorem placeholders_by_text_scanner order body es nm :
  is_perm order -> msg_entries body = Ok es -> msg_names order body = Ok nm ->
  forall b1 b2 n1 n2 s1 s2,
  wf_print n1 -> lex_ok_print n1 -> wf_print n2 -> lex_ok_print n2 -> print_node n1 = Some s1 -> print_node n2 = Some s2 ->
  In (b1, s1) es -> In (b2, s2) es ->
  name_of nm b1 s1 = name_of nm b2 s2 -> b1 = b2 /\ strip_pos n1 = strip_pos n2.
Proof.
  intros Hp Hes Hnm b1 b2 n1 n2 s1 s2 W1 L1 W2 L2 P1 P2 I1 I2 E.
  pose proof (names_distinct order body es nm Hp Hes Hnm b1 s1 b2 s2 I1 I2 E) as Heq.
  injection Heq as -> ->. split; [reflexivity|]. eapply print_command_string_injective; eauto.
Qed.
