(* The header entry of a catalogue, from its bytes to the plural rule of pomsg's bundle (Model/PoHeader.v):
   textproto's ReadMIMEHeader reads back the "key: value\n" lines File.WriteTo writes for a header, the
   header entry comes back from the file as the first message, Parse takes it out, and newBundle gets the
   selector the header's Plural-Forms names. *)
From Coq Require Import Lia ZifyBool List Bool ZArith.
From Soy Require Import Model.Bytes Model.Outcome Model.Utf8 Model.Num Model.Values Model.Ast Model.MsgId Model.MsgParts
  Model.PoFile Model.PoEntry Model.PoBundle Model.PoHeader Proofs.PoFileProofs Proofs.PoEntryProofs Proofs.PoBundleProofs.
Import ListNotations.
Open Scope N_scope.

Lemma field_byte_facts c : poh_field_byte c = true ->
  c <> 10 /\ c <> 13 /\ c <> 58 /\ c <> 32 /\ c <> 9 /\ poh_is_blank c = false /\ poh_value_byte c = true /\ c < 256.
Proof.
  unfold poh_field_byte, poh_is_blank, poh_value_byte, in_range, mem. cbn [existsb]. intro H. lia.
Qed.

Lemma value_byte_facts c : poh_value_byte c = true -> c <> 10 /\ c <> 13.
Proof. unfold poh_value_byte, in_range. intro H. lia. Qed.

Lemma cut_nl_app l r : nl_free l -> poh_cut_nl (l ++ 10 :: r) = (l, Some r).
Proof.
  induction l as [|c l IH]; intro H; [reflexivity|].
  inversion H as [|? ? Hc Hl]; subst. cbn [app poh_cut_nl].
  replace (c =? 10) with false by lia. rewrite IH by exact Hl. reflexivity.
Qed.

Lemma read_line_app c l r : nl_free (c :: l) ->
  poh_read_line ((c :: l) ++ 10 :: r) = Some (drop_cr (c :: l), r).
Proof.
  intro H. unfold poh_read_line. cbn [app]. change (c :: l ++ 10 :: r) with ((c :: l) ++ 10 :: r).
  rewrite cut_nl_app by exact H. reflexivity.
Qed.

Lemma trim_left_length s : (length (poh_trim_left s) <= length s)%nat.
Proof. induction s as [|y s IH]; cbn [poh_trim_left length]; [lia|]. destruct (poh_is_blank y); cbn [length]; lia. Qed.

Lemma trim_left_fix_head x a : poh_trim_left (x :: a) = x :: a -> poh_is_blank x = false.
Proof.
  cbn [poh_trim_left]. destruct (poh_is_blank x); [|reflexivity].
  intro H. pose proof (trim_left_length a) as Hl. rewrite H in Hl. cbn [length] in Hl. lia.
Qed.

Lemma trim_left_fix_app a c : a <> [] -> poh_trim_left a = a -> poh_trim_left (a ++ c) = a ++ c.
Proof.
  destruct a as [|x a]; [congruence|]. intros _ H. cbn [app poh_trim_left].
  rewrite (trim_left_fix_head x a H). reflexivity.
Qed.

(* a canonical key; a value of valid bytes without a blank at either end *)
Definition poh_key_ok (k : bstr) : Prop :=
  k <> [] /\ Forall (fun c => poh_field_byte c = true) k /\ poh_canon true k = k.
Definition poh_val_ok (v : bstr) : Prop :=
  (Forall (fun c => poh_value_byte c = true) v /\ poh_trim_left v = v /\ poh_trim_left (rev v) = rev v) /\ bytes v.
Definition poh_hdr_ok (h : poh_header) : Prop := Forall (fun kv => poh_key_ok (fst kv) /\ poh_val_ok (snd kv)) h.

Definition poh_line (k v : bstr) : bstr := k ++ poh_colon_sp ++ v.

Lemma header_text_cons k v h : poh_header_text ((k, v) :: h) = poh_line k v ++ 10 :: poh_header_text h.
Proof. unfold poh_header_text, poh_line. cbn [flat_map fst snd]. rewrite <- !app_assoc. reflexivity. Qed.

Lemma forallb_Forall {A} (f : A -> bool) l : Forall (fun c => f c = true) l -> forallb f l = true.
Proof. intro H. apply forallb_forall. apply Forall_forall. exact H. Qed.

Section Line.
Variables k v : bstr.
Hypothesis Hk : poh_key_ok k.
Hypothesis Hv : poh_val_ok v.

Lemma line_nl_free : nl_free (poh_line k v).
Proof.
  destruct Hk as (_ & Hkb & _). destruct Hv as ((Hvb & _ & _) & _). unfold poh_line.
  apply nl_free_app; [|apply nl_free_app; [repeat constructor; lia|]].
  - eapply Forall_impl; [|exact Hkb]. intros c Hc. apply field_byte_facts in Hc. tauto.
  - eapply Forall_impl; [|exact Hvb]. intros c Hc. apply value_byte_facts in Hc. tauto.
Qed.

Lemma line_last : exists m c, poh_line k v = m ++ [c] /\ c <> 13 /\ (poh_is_blank c = true -> v = []).
Proof.
  destruct Hv as ((Hvb & _ & Hr) & _). unfold poh_line.
  destruct v as [|v0 vs] eqn:Ev.
  - exists (k ++ [58]), 32. rewrite <- app_assoc. split; [reflexivity|]. split; [lia|reflexivity].
  - destruct (@exists_last _ (v0 :: vs)) as (m & c & E); [discriminate|]. rewrite E in *.
    exists (k ++ poh_colon_sp ++ m), c. rewrite <- !app_assoc. split; [reflexivity|].
    apply Forall_app in Hvb. destruct Hvb as [_ Hc]. inversion Hc as [|? ? Hc1 _]; subst.
    apply value_byte_facts in Hc1. split; [tauto|].
    intro Hb. rewrite rev_app_distr in Hr. apply trim_left_fix_head in Hr. congruence.
Qed.

Lemma line_drop_cr : drop_cr (poh_line k v) = poh_line k v.
Proof. destruct line_last as (m & c & E & Hc & _). rewrite E. apply drop_cr_last. exact Hc. Qed.

Lemma key_first : exists c0 k', k = c0 :: k' /\ poh_is_blank c0 = false.
Proof.
  destruct Hk as (Hne & Hkb & _). destruct k as [|c0 k']; [congruence|]. exists c0, k'. split; [reflexivity|].
  inversion Hkb as [|? ? Hc _]; subst. apply field_byte_facts in Hc. tauto.
Qed.

Lemma line_has_colon : mem 58 (poh_line k v) = true.
Proof.
  unfold poh_line, mem. rewrite existsb_app. apply orb_true_iff. right. reflexivity.
Qed.

(* trim(line): the blank after the colon goes when the value is empty *)
Definition poh_kv : bstr := k ++ 58 :: match v with [] => [] | _ => 32 :: v end.

Lemma line_trim : poh_trim (poh_line k v) = poh_kv.
Proof.
  destruct key_first as (c0 & k' & Ek & Hc0). destruct Hv as ((Hvb & Hl & Hr) & _).
  unfold poh_trim. assert (E1 : poh_trim_left (poh_line k v) = poh_line k v).
  { unfold poh_line. rewrite Ek. cbn [app poh_trim_left]. rewrite Hc0. reflexivity. }
  rewrite E1. unfold poh_line, poh_kv. destruct v as [|v0 vs] eqn:Ev.
  - rewrite app_nil_r, rev_app_distr. change (rev poh_colon_sp) with [32; 58]. cbn [app poh_trim_left].
    change (poh_is_blank 32) with true. change (poh_is_blank 58) with false. cbv iota.
    cbn [rev]. rewrite rev_involutive. reflexivity.
  - rewrite app_assoc, rev_app_distr. rewrite trim_left_fix_app; [| |exact Hr].
    + rewrite <- rev_app_distr, rev_involutive. rewrite <- app_assoc. reflexivity.
    + intro H0. apply (f_equal (@rev N)) in H0. rewrite rev_involutive in H0. discriminate.
Qed.

Lemma key_no_colon : forall k0, Forall (fun c => poh_field_byte c = true) k0 -> forall w, poh_cut_colon (k0 ++ 58 :: w) = (k0, w).
Proof.
  induction k0 as [|c k0 IH]; intros H w; [reflexivity|].
  inversion H as [|? ? Hc Hk0]; subst. cbn [app poh_cut_colon].
  apply field_byte_facts in Hc. replace (c =? 58) with false by lia. rewrite IH by exact Hk0. reflexivity.
Qed.

Lemma key_canonical : poh_canonical_key k = Some k.
Proof.
  destruct Hk as (Hne & Hkb & Hc). unfold poh_canonical_key. destruct k as [|c0 k'] eqn:Ek; [congruence|]. rewrite <- Ek in *.
  assert (E1 : forallb (fun c => poh_field_byte c || (c =? 32)) k = true).
  { apply forallb_Forall. eapply Forall_impl; [|exact Hkb]. intros c H. cbn beta in *. rewrite H. reflexivity. }
  rewrite E1. assert (E2 : mem 32 k = false).
  { unfold mem. apply not_true_is_false. intro H. apply existsb_exists in H. destruct H as (c & Hin & Hc32).
    rewrite Forall_forall in Hkb. apply Hkb in Hin. apply field_byte_facts in Hin. lia. }
  rewrite E2, Hc. reflexivity.
Qed.

Lemma kv_value_ok : forallb poh_value_byte (match v with [] => [] | _ => 32 :: v end) = true
  /\ poh_trim_left (match v with [] => [] | _ => 32 :: v end) = v.
Proof.
  destruct Hv as ((Hvb & Hl & _) & _). destruct v as [|v0 vs] eqn:Ev; [split; reflexivity|]. split.
  - apply forallb_Forall. constructor; [reflexivity|exact Hvb].
  - cbn [poh_trim_left]. change (poh_is_blank 32) with true. cbv iota. exact Hl.
Qed.

End Line.

Definition starts_unblank (s : bstr) : Prop := match s with [] => True | c :: _ => poh_is_blank c = false end.

Lemma cont_stops fuel buf s : starts_unblank s -> poh_cont (S fuel) buf s = Ok (buf, s).
Proof. destruct s as [|c s]; cbn [poh_cont starts_unblank]; [reflexivity|]. intro H. rewrite H. reflexivity. Qed.

Lemma header_text_first h : poh_hdr_ok h -> starts_unblank (poh_header_text h).
Proof.
  destruct h as [|[k v] h]; [exact (fun _ => I)|]. intro H. inversion H as [|? ? [Hk _] _]; subst. cbn [fst] in Hk.
  rewrite header_text_cons. destruct (key_first k Hk) as (c0 & k' & -> & Hc). unfold poh_line. cbn [app starts_unblank]. exact Hc.
Qed.

Lemma header_loop_text : forall h m fuel, poh_hdr_ok h -> (length h < fuel)%nat ->
  poh_header_loop fuel m (poh_header_text h) = Ok (m ++ h).
Proof.
  induction h as [|[k v] h IH]; intros m fuel H Hf; (destruct fuel as [|fuel]; [cbn [length] in Hf; lia|]).
  - cbn. rewrite app_nil_r. reflexivity.
  - inversion H as [|? ? [Hk Hv] Hh]; subst. cbn [fst snd] in Hk, Hv.
    rewrite header_text_cons. cbn [poh_header_loop].
    destruct (key_first k Hk) as (c0 & k' & Ek & Hc0).
    assert (El : poh_line k v = c0 :: (k' ++ poh_colon_sp ++ v)) by (unfold poh_line; rewrite Ek; reflexivity).
    assert (Hnl : nl_free (poh_line k v)) by (apply line_nl_free; assumption).
    assert (Hcr : drop_cr (poh_line k v) = poh_line k v) by (apply line_drop_cr; assumption).
    assert (Hcol : mem 58 (poh_line k v) = true) by (apply line_has_colon).
    assert (Htr : poh_trim (poh_line k v) = poh_kv k v) by (apply line_trim; assumption).
    assert (Hcan' : poh_canonical_key k = Some k) by (apply key_canonical; assumption).
    assert (Hkv : forallb poh_value_byte (match v with [] => [] | _ => 32 :: v end) = true
                  /\ poh_trim_left (match v with [] => [] | _ => 32 :: v end) = v) by (apply kv_value_ok; assumption).
    rewrite El in *. rewrite read_line_app by exact Hnl. rewrite Hcr. cbv iota beta. rewrite Hcol. cbn [negb].
    rewrite cont_stops by (apply header_text_first; exact Hh). cbn [bind]. rewrite Htr.
    unfold poh_kv. rewrite Ek. cbn [app]. cbv iota beta. change (c0 :: k' ++ ?x) with ((c0 :: k') ++ x). rewrite <- Ek.
    destruct Hk as (Hne & Hkb & Hcan). rewrite key_no_colon by exact Hkb.
    rewrite Hcan'. destruct Hkv as [E1 E2]. rewrite E1.
    match goal with |- poh_header_loop _ (m ++ [(k, ?t)]) _ = _ => replace t with v by (symmetry; exact E2) end.
    rewrite IH; [rewrite <- app_assoc; reflexivity|exact Hh|cbn [length] in Hf; lia].
Qed.

Lemma header_text_length h : poh_hdr_ok h -> (length h <= length (poh_header_text h))%nat.
Proof.
  induction h as [|[k v] h IH]; intro H; [cbn; lia|]. inversion H as [|? ? _ Hh]; subst.
  rewrite header_text_cons, app_length. cbn [length]. specialize (IH Hh). lia.
Qed.

(* textproto.ReadMIMEHeader on the msgstr of the header entry: the keys and values, in order *)
Theorem read_mime_header_text h : poh_hdr_ok h -> poh_read_mime_header (poh_header_text h) = Ok h.
Proof.
  intro H. unfold poh_read_mime_header. pose proof (header_text_first h H) as Hf. pose proof (header_text_length h H) as Hl.
  destruct (poh_header_text h) as [|c s] eqn:E.
  - destruct h; [reflexivity|cbn [length] in Hl; lia].
  - cbn [starts_unblank] in Hf. rewrite Hf. rewrite <- E. apply (header_loop_text h [] _ H). rewrite E. lia.
Qed.

Lemma header_text_bytes h : poh_hdr_ok h -> bytes (poh_header_text h).
Proof.
  induction h as [|[k v] h IH]; intro H; [constructor|]. inversion H as [|? ? [Hk Hv] Hh]; subst. cbn [fst snd] in Hk, Hv.
  rewrite header_text_cons. unfold poh_line. destruct Hk as (_ & Hkb & _). destruct Hv as (_ & Hvb).
  unfold bytes in *. repeat (apply Forall_app_2).
  - eapply Forall_impl; [|exact Hkb]. intros c Hc. apply field_byte_facts in Hc. tauto.
  - repeat constructor; lia.
  - exact Hvb.
  - constructor; [lia|]. apply IH. exact Hh.
Qed.

Definition no_comment : pe_comment :=
  {| pc_translator := []; pc_extracted := []; pc_refs := []; pc_flags := [];
     pc_prev_ctxt := []; pc_prev_id := []; pc_prev_id_plural := [] |}.

(* the header entry as Parse's loop reads it *)
Definition poh_header_msg (h : poh_header) : pe_message :=
  {| pm_comment := no_comment; pm_fields := poh_header_fields h |}.

Section File.
Variable is_print : N -> bool.

(* Parse's message literal on an entry without comment lines *)
Lemma read_message_no_comment (f : po_fields) (tail : list bstr) (e : bool) :
  fields_bytes f -> blank_next tail ->
  pe_read_message (scan_of (po_write_fields is_print f ++ tail) e)
  = Ok ({| pm_comment := no_comment;
           pm_fields := {| pf_ctxt := pf_ctxt f; pf_id := pf_id f; pf_id_plural := pf_id_plural f; pf_str := norm_str f |} |},
        scan_of tail e).
Proof.
  intros Hf Ht. unfold pe_read_message.
  cbn [pe_r_mul]. rewrite fields_not_comment by reflexivity. cbn [bind].
  rewrite fields_not_comment by reflexivity. cbn [bind].
  unfold pe_r_spc, pe_r_one. rewrite !fields_not_comment by reflexivity.
  rewrite po_fields_roundtrip by assumption. reflexivity.
Qed.

Lemma write_header_fields h : h <> [] ->
  poh_write_header is_print h = po_write_fields is_print (poh_header_fields h) ++ [[]].
Proof. destruct h as [|kv h]; [congruence|]. intros _. reflexivity. Qed.

Definition poh_l_msgid_empty := Eval vm_compute in b "msgid """"".

Lemma header_fields_first h : exists more, po_write_fields is_print (poh_header_fields h) = poh_l_msgid_empty :: more.
Proof. unfold po_write_fields. cbn [poh_header_fields pf_ctxt pf_id pf_id_plural pf_str po_opt app]. eexists. reflexivity. Qed.

(* the lines of the file File.WriteTo writes for a header and the extractor's entries *)
Lemma header_file_lines h es : h <> [] -> Forall xentry_ok es ->
  scan_lines [] (poh_write_file is_print h (map xentry_msg es))
  = po_write_fields is_print (poh_header_fields h) ++ [] :: flat_map (fun t => xentry_lines is_print t ++ [[]]) es.
Proof.
  intros Hne Hes. unfold poh_write_file. rewrite write_header_fields by exact Hne.
  rewrite <- app_assoc, join_lines_app. cbn [app]. change (join_lines ([] :: ?x)) with (10 :: join_lines x).
  pose proof (fields_lines_ok is_print (poh_header_fields h)) as Hok.
  rewrite scan_lines_join_app by (apply lines_ok_nl_free, Hok).
  rewrite map_drop_cr_ok by exact Hok.
  change (10 :: join_lines ?x) with (join_lines [[]] ++ join_lines x).
  rewrite scan_lines_join_app by (repeat constructor).
  pose proof (file_lines is_print es Hes) as Hfl. unfold pe_write_file in Hfl. rewrite Hfl. reflexivity.
Qed.

(* po.Parse's loop on that file: the header entry first, then every entry *)
Theorem parse_header_file h es : h <> [] -> poh_hdr_ok h -> Forall xentry_ok es ->
  pe_parse (poh_write_file is_print h (map xentry_msg es)) = Ok (poh_header_msg h :: map xentry_read es).
Proof.
  intros Hne Hh Hes. unfold pe_parse. rewrite header_file_lines by assumption.
  set (R := flat_map (fun t => xentry_lines is_print t ++ [[]]) es).
  destruct (header_fields_first h) as (more & Ef).
  assert (Hfb : fields_bytes (poh_header_fields h)).
  { unfold fields_bytes. cbn [poh_header_fields pf_ctxt pf_id pf_id_plural pf_str]. repeat split; try constructor; [|constructor].
    apply header_text_bytes. exact Hh. }
  pose proof (read_message_no_comment (poh_header_fields h) ([] :: R) false Hfb eq_refl) as Hrd.
  remember (length (po_write_fields is_print (poh_header_fields h) ++ [] :: R)) as n eqn:En.
  cbn [pe_parse_loop sc_rest].
  remember (po_write_fields is_print (poh_header_fields h) ++ [] :: R) as L eqn:EL.
  assert (EL' : L = poh_l_msgid_empty :: more ++ [] :: R) by (rewrite EL, Ef; reflexivity).
  assert (Hnm : pe_nextmsg (S (S (length L))) {| sc_cur := []; sc_rest := L; sc_err := false |} = Ok (true, scan_of L false)).
  { rewrite EL'. reflexivity. }
  rewrite Hnm. cbn [bind negb]. rewrite Hrd. cbn [bind].
  change (scan_of ([] :: R) false) with {| sc_cur := []; sc_rest := R; sc_err := false |}.
  subst R. rewrite (parse_loop_entries is_print es _ [] n Hes).
  - reflexivity.
  - subst n L. rewrite app_length. cbn [length]. pose proof (entries_lines_length is_print es). lia.
Qed.

End File.

(* what newBundle does with a selector and the locale's name *)
Definition poh_choose (sel : option N) (locale : bstr) : option N :=
  match sel with Some c => Some c | None => poh_selector_for_language locale end.

Lemma finish_header h ms : poh_hdr_ok h ->
  poh_finish (poh_header_msg h :: ms)
  = (sel <- poh_pluralize h ;; Ok {| pohf_header := h; pohf_messages := ms; pohf_pluralize := sel |}).
Proof.
  intro H. unfold poh_finish, poh_header_msg, poh_header_fields. cbn [pm_fields pf_id pf_str].
  rewrite read_mime_header_text by exact H. reflexivity.
Qed.

(* THE CATALOGUE FILE WITH ITS HEADER -> THE BUNDLE AND ITS PLURAL RULE: File.WriteTo of a header (canonical keys,
   values of valid bytes) and of the extractor's entries with any msgstr filled in, read by po.Parse (its loop,
   textproto.ReadMIMEHeader on the header entry, the Plural-Forms / Language lookup) and loaded by
   pomsg.newBundle under a locale name *)
Theorem load_header_file is_print (h : poh_header) (es : list xentry) (locale : bstr) :
  h <> [] -> poh_hdr_ok h -> Forall xentry_ok es -> Forall xentry_id64 es ->
  poh_load locale (poh_write_file is_print h (map xentry_msg es))
  = (sel <- poh_pluralize h ;;
     match poh_choose sel locale with
     | None => Err poh_e_forms
     | Some c => bd <- new_bundle (map xentry_po es) ;; Ok (bd, c)
     end).
Proof.
  intros Hne Hh Hok H64. unfold poh_load, poh_parse. rewrite parse_header_file by assumption. cbn [bind].
  rewrite finish_header by exact Hh. destruct (poh_pluralize h) as [sel| | | | | ]; cbn [bind]; try reflexivity.
  unfold poh_new_bundle, poh_choose. cbn [pohf_pluralize pohf_messages].
  rewrite bundle_loop_entries by exact H64. reflexivity.
Qed.

(* the header names a known rule: that rule, whatever the locale's name *)
Corollary load_header_plural_forms is_print h es locale c :
  h <> [] -> poh_hdr_ok h -> Forall xentry_ok es -> Forall xentry_id64 es ->
  poh_lookup_selector (poh_get poh_k_plural_forms h) = Some c ->
  poh_load locale (poh_write_file is_print h (map xentry_msg es))
  = (bd <- new_bundle (map xentry_po es) ;; Ok (bd, c)).
Proof.
  intros Hne Hh Hok H64 Hc. rewrite load_header_file by assumption. unfold poh_pluralize.
  destruct (poh_get poh_k_plural_forms h) as [|x pf] eqn:E; [discriminate Hc|]. rewrite Hc. reflexivity.
Qed.

(* the header names an unknown rule: no bundle, whatever the locale's name (po.Parse fails) *)
Corollary load_header_unknown_forms is_print h es locale :
  h <> [] -> poh_hdr_ok h -> Forall xentry_ok es -> Forall xentry_id64 es ->
  poh_get poh_k_plural_forms h <> [] -> poh_lookup_selector (poh_get poh_k_plural_forms h) = None ->
  poh_load locale (poh_write_file is_print h (map xentry_msg es)) = Err poh_e_selector.
Proof.
  intros Hne Hh Hok H64 Hpf Hc. rewrite load_header_file by assumption. unfold poh_pluralize.
  destruct (poh_get poh_k_plural_forms h) as [|x pf] eqn:E; [congruence|]. rewrite Hc. reflexivity.
Qed.

(* no Plural-Forms in the header: the rule of the header's Language, else of the locale's name, else refused *)
Corollary load_header_no_forms is_print h es locale :
  h <> [] -> poh_hdr_ok h -> Forall xentry_ok es -> Forall xentry_id64 es ->
  poh_get poh_k_plural_forms h = [] ->
  poh_load locale (poh_write_file is_print h (map xentry_msg es))
  = match poh_choose (poh_selector_for_language (poh_get poh_k_language h)) locale with
    | None => Err poh_e_forms
    | Some c => bd <- new_bundle (map xentry_po es) ;; Ok (bd, c)
    end.
Proof.
  intros Hne Hh Hok H64 Hpf. rewrite load_header_file by assumption. unfold poh_pluralize. rewrite Hpf. reflexivity.
Qed.

(* a file without header entry whose first entry has a msgid: the messages as they are, the rule of the locale's name *)
Theorem load_no_header is_print (es : list xentry) (locale : bstr) :
  Forall xentry_ok es -> Forall xentry_id64 es ->
  match es with [] => True | (_, _, _, f) :: _ => pf_id f <> [] end ->
  poh_load locale (pe_write_file is_print (map xentry_msg es))
  = match poh_selector_for_language locale with
    | None => Err poh_e_forms
    | Some c => bd <- new_bundle (map xentry_po es) ;; Ok (bd, c)
    end.
Proof.
  intros Hok H64 Hfirst. unfold poh_load, poh_parse. rewrite parse_extracted_file by exact Hok. cbn [bind].
  destruct es as [|[[[desc id] pv] f] es'].
  - cbn [map poh_finish bind]. unfold poh_new_bundle. cbn [pohf_pluralize pohf_messages].
    destruct (poh_selector_for_language locale); reflexivity.
  - pose (t := ((desc, id, pv, f) : xentry)).
    assert (Hfin : poh_finish (map xentry_read (t :: es'))
                   = Ok {| pohf_header := []; pohf_messages := map xentry_read (t :: es'); pohf_pluralize := None |}).
    { subst t. cbn [map poh_finish xentry_read pm_fields pf_id pf_str].
      destruct (pf_id f) as [|c0 i0]; [congruence|]. reflexivity. }
    change ((desc, id, pv, f) :: es') with (t :: es') in *.
    rewrite Hfin. cbn [bind]. unfold poh_new_bundle. cbn [pohf_pluralize pohf_messages].
    rewrite bundle_loop_entries by exact H64. reflexivity.
Qed.

(* every selector stays below the number of forms its Plural-Forms declares *)
Definition poh_nplurals (code : N) : Z :=
  if code =? 0 then 1%Z else if code <=? 2 then 2%Z else if code <=? 9 then 3%Z else if code =? 10 then 4%Z else 6%Z.

Theorem select_in_range code n : (0 <= poh_select code n < poh_nplurals code)%Z.
Proof.
  unfold poh_select, poh_nplurals. cbv zeta.
  destruct (code =? 0) eqn:E0; [lia|]. destruct (code =? 1) eqn:E1; [replace (code <=? 2) with true by lia; destruct (n =? 1)%Z; lia|].
  destruct (code =? 2) eqn:E2; [replace (code <=? 2) with true by lia; destruct (1 <? n)%Z; lia|].
  replace (code <=? 2) with false by lia.
  destruct (code =? 10) eqn:E10.
  { replace (code =? 3) with false by lia. replace (code =? 4) with false by lia. replace (code =? 5) with false by lia.
    replace (code =? 6) with false by lia. replace (code =? 7) with false by lia. replace (code =? 8) with false by lia.
    replace (code =? 9) with false by lia. replace (code <=? 9) with false by lia.
    repeat match goal with |- context [if ?c then _ else _] => destruct c end; lia. }
  destruct (code <=? 9) eqn:E9.
  - repeat match goal with |- context [if ?c then _ else _] => destruct c eqn:? end; lia.
  - replace (code =? 3) with false by lia. replace (code =? 4) with false by lia. replace (code =? 5) with false by lia.
    replace (code =? 6) with false by lia. replace (code =? 7) with false by lia. replace (code =? 8) with false by lia.
    replace (code =? 9) with false by lia.
    repeat match goal with |- context [if ?c then _ else _] => destruct c end; lia.
Qed.

(* the rules Model/MsgParts.v names are these selectors *)
Lemma select_neq1 n : poh_plural_index 1 n = plural_neq1 n.
Proof. unfold poh_plural_index, poh_select, plural_neq1. cbn [N.eqb Pos.eqb]. destruct (n =? 1)%Z; reflexivity. Qed.
Lemma select_gt1 n : poh_plural_index 2 n = plural_gt1 n.
Proof. unfold poh_plural_index, poh_select, plural_gt1. cbn [N.eqb Pos.eqb]. rewrite Z.gtb_ltb. destruct (1 <? n)%Z; reflexivity. Qed.

(* Plural-Forms values as translators' tools write them: spaces do not matter *)
Example ex_lookup_ru : poh_lookup_selector (b "nplurals=3; plural=(n%10==1 && n%100!=11 ? 0 : n%10>=2 && n%10<=4 && (n%100<10 || n%100>=20) ? 1 : 2);") = Some 7.
Proof. vm_compute. reflexivity. Qed.
Example ex_lookup_spaces : poh_lookup_selector (b "nplurals=2;plural=(n!=1);") = Some 1 /\ poh_lookup_selector (b "nplurals = 2 ; plural = ( n != 1 ) ;") = Some 1.
Proof. vm_compute. split; reflexivity. Qed.
Example ex_lookup_unknown : poh_lookup_selector (b "nplurals=2; plural=n != 1;") = None /\ poh_lookup_selector [] = None.
Proof. vm_compute. split; reflexivity. Qed.
Example ex_language : poh_selector_for_language (b "pt-BR") = Some 2 /\ poh_selector_for_language (b "pt_PT") = Some 1
  /\ poh_selector_for_language (b "en_GB") = Some 1 /\ poh_selector_for_language (b "xx") = None /\ poh_selector_for_language (b "eng") = None.
Proof. vm_compute. repeat split; reflexivity. Qed.
