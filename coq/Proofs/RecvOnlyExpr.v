(* The expression parser model (Model/ExprParser.v) touches the item list only through Token.recv:
   every procedure is locked in the sense of Proofs/RecvOnlyTok.v.  Reading for the entry point parse.Expr:
   [ro_parse_expr_depends_on_received]. *)
From Soy Require Import Model.Bytes Model.Num Model.Values Model.Ast Model.Token Model.NumLit Model.Quote Model.ExprParser
  Generated.Tables Proofs.ExprParserRules Proofs.RecvOnlyTok.
Open Scope N_scope.

(* a return: the same value on both sides, in the state and in its extension *)
Ltac ro_ret := apply ro_lock_eq; [reflexivity|first [exact I|apply ro_mono_refl]].
Lemma ro_pret {A} (a : A) p e : ro_lock e p (POk a p) (POk a (ro_pext e p)).
Proof. ro_ret. Qed.
#[export] Hint Resolve ro_pret : ro.

(* Both sides are the same body, on [q] and on [ro_pext e q]: descend through binds, conditionals and matches.
   What remains is a call [P (g q)] against [P (g (ro_pext e q))] where [g] does not touch the items: the instance
   at [g q] of a lemma in the hint base [ro] or of a hypothesis. *)
Ltac ro_ego :=
  repeat lazymatch goal with
  | |- ro_lock _ _ (pbind _ _) (pbind _ _) => apply ro_lock_bind; [|intros ? ? ?]
  | |- ro_lock _ _ (let '(_, _) := p_next _ in _) _ => apply ro_lock_let_next; intros ? ? ?
  | |- ro_lock _ _ (let '(_, _) := p_peek_tok _ in _) _ => apply ro_lock_let_peek; intros ? ? ?
  | |- ro_lock _ _ (if ?c then _ else _) (if ?c then _ else _) => destruct c
  | |- ro_lock _ _ (match ?c with _ => _ end) (match ?c with _ => _ end) => destruct c
  | |- ro_lock _ _ (PCrash _) _ => ro_ret
  | |- ro_lock ?e _ (?P ?gs) _ => change (ro_lock e gs (P gs) (P (ro_pext e gs))); solve [auto with ro nocore]
  | |- _ => progress cbv zeta
  end.
(* a loop procedure: induction on its fuel, out of fuel being the same on both sides *)
Ltac ro_eloop lf IH := induction lf as [|lf IH]; intros; [ro_ret|].

Lemma ro_p_errorf_lock {A} c e p : ro_lock e p (@p_errorf A c p) (p_errorf c (ro_pext e p)).
Proof. unfold p_errorf. ro_ret. Qed.
Lemma ro_p_unexpected_lock {A} t e p : ro_lock e p (@p_unexpected A t p) (p_unexpected t (ro_pext e p)).
Proof. unfold p_unexpected. destruct (t_typ t =? pk_itemError); ro_ret. Qed.
#[export] Hint Resolve ro_p_errorf_lock ro_p_unexpected_lock : ro.
Lemma ro_p_expect_lock typ e p : ro_lock e p (p_expect typ p) (p_expect typ (ro_pext e p)).
Proof. unfold p_expect. ro_ego. Qed.
#[export] Hint Resolve ro_p_expect_lock : ro.

Section Body.
Variable w : N -> pst -> presult node.
Hypothesis Hw : forall prec p e, ro_lock e p (w prec p) (w prec (ro_pext e p)).

Lemma ro_parse_ternary c p e : ro_lock e p (parse_ternary w c p) (parse_ternary w c (ro_pext e p)).
Proof. unfold parse_ternary. ro_ego. Qed.
#[local] Hint Resolve ro_parse_ternary : ro.

Lemma ro_expr_loop : forall lf prec n p e, ro_lock e p (expr_loop w lf prec n p) (expr_loop w lf prec n (ro_pext e p)).
Proof. ro_eloop lf IH. rewrite !expr_loop_S. ro_ego. Qed.
#[local] Hint Resolve ro_expr_loop : ro.

Lemma ro_data_ref_loop : forall lf ps key acc p e,
  ro_lock e p (data_ref_loop w lf ps key acc p) (data_ref_loop w lf ps key acc (ro_pext e p)).
Proof. ro_eloop lf IH. rewrite !data_ref_loop_S. ro_ego. Qed.
#[local] Hint Resolve ro_data_ref_loop : ro.
Lemma ro_parse_data_ref lf t p e : ro_lock e p (parse_data_ref w lf t p) (parse_data_ref w lf t (ro_pext e p)).
Proof. unfold parse_data_ref. ro_ego. Qed.
#[local] Hint Resolve ro_parse_data_ref : ro.

Lemma ro_list_loop : forall lf ps items p e, ro_lock e p (list_loop w lf ps items p) (list_loop w lf ps items (ro_pext e p)).
Proof. ro_eloop lf IH. rewrite !list_loop_S. ro_ego. Qed.
#[local] Hint Resolve ro_list_loop : ro.
Lemma ro_map_loop : forall lf ps items key p e,
  ro_lock e p (map_loop w lf ps items key p) (map_loop w lf ps items key (ro_pext e p)).
Proof. ro_eloop lf IH. rewrite !map_loop_S. ro_ego. Qed.
#[local] Hint Resolve ro_map_loop : ro.
Lemma ro_parse_map_literal lf ps first p e :
  ro_lock e p (parse_map_literal w lf ps first p) (parse_map_literal w lf ps first (ro_pext e p)).
Proof. unfold parse_map_literal. ro_ego. Qed.
#[local] Hint Resolve ro_parse_map_literal : ro.
Lemma ro_parse_list_or_map lf t p e : ro_lock e p (parse_list_or_map w lf t p) (parse_list_or_map w lf t (ro_pext e p)).
Proof. unfold parse_list_or_map. ro_ego. Qed.
#[local] Hint Resolve ro_parse_list_or_map : ro.

Lemma ro_global_loop : forall lf ps name nx p e,
  ro_lock e p (global_loop lf ps name nx p) (global_loop lf ps name nx (ro_pext e p)).
Proof. ro_eloop lf IH. rewrite !global_loop_S. ro_ego. Qed.
#[local] Hint Resolve ro_global_loop : ro.
Lemma ro_func_loop : forall lf ps name args p e,
  ro_lock e p (func_loop w lf ps name args p) (func_loop w lf ps name args (ro_pext e p)).
Proof. ro_eloop lf IH. rewrite !func_loop_S. ro_ego. Qed.
#[local] Hint Resolve ro_func_loop : ro.
Lemma ro_new_function_node lf t p e : ro_lock e p (new_function_node w lf t p) (new_function_node w lf t (ro_pext e p)).
Proof. unfold new_function_node. ro_ego. Qed.
#[local] Hint Resolve ro_new_function_node : ro.

Lemma ro_new_value_node lf t p e : ro_lock e p (new_value_node w lf t p) (new_value_node w lf t (ro_pext e p)).
Proof. unfold new_value_node. ro_ego. Qed.
#[local] Hint Resolve ro_new_value_node : ro.
Lemma ro_parse_first_term lf p e : ro_lock e p (parse_first_term w lf p) (parse_first_term w lf (ro_pext e p)).
Proof. unfold parse_first_term. ro_ego. Qed.
#[local] Hint Resolve ro_parse_first_term : ro.
Lemma ro_parse_expr_body lf prec p e : ro_lock e p (parse_expr_body w lf prec p) (parse_expr_body w lf prec (ro_pext e p)).
Proof. unfold parse_expr_body. ro_ego. Qed.

Lemma ro_directive_args_loop : forall lf args p e,
  ro_lock e p (directive_args_loop w lf args p) (directive_args_loop w lf args (ro_pext e p)).
Proof. ro_eloop lf IH. rewrite !directive_args_loop_S. ro_ego. Qed.
#[local] Hint Resolve ro_directive_args_loop : ro.
Lemma ro_print_loop : forall lf ps x dirs p e,
  ro_lock e p (print_loop w lf ps x dirs p) (print_loop w lf ps x dirs (ro_pext e p)).
Proof. ro_eloop lf IH. rewrite !print_loop_S. ro_ego. Qed.
#[local] Hint Resolve ro_print_loop : ro.
Lemma ro_parse_print_body lf ps p e : ro_lock e p (parse_print_body w lf ps p) (parse_print_body w lf ps (ro_pext e p)).
Proof. unfold parse_print_body. ro_ego. Qed.
End Body.

Theorem ro_parse_expr : forall fuel prec, ro_lockP (parse_expr fuel prec).
Proof.
  induction fuel as [|f IH]; intros prec p e; [cbn [parse_expr]; ro_ret|].
  cbn [parse_expr]. apply ro_parse_expr_body. intros prec' p' e'. apply IH.
Qed.
Theorem ro_parse_print : forall fuel ps, ro_lockP (parse_print fuel ps).
Proof. intros fuel ps p e. unfold parse_print. apply ro_parse_print_body. intros prec' p' e'. apply ro_parse_expr. Qed.

(* parse.Expr (budget F explicit): a run that made no more receives than there are items in [ts] is the run on
   every extension [ts ++ e] of the list, and conversely *)
Theorem ro_parse_expr_depends_on_received F ts e :
  (forall r, parse_expr F 0 (pst_init ts) = r ->
     match ro_fin r with Some q => (p_recv q <= length ts)%nat | None => False end ->
     parse_expr F 0 (pst_init (ts ++ e)) = ro_rext e r) /\
  (forall r', parse_expr F 0 (pst_init (ts ++ e)) = r' ->
     match ro_fin r' with Some q => (p_recv q <= length ts)%nat | None => False end ->
     r' = ro_rext e (parse_expr F 0 (pst_init ts))).
Proof.
  destruct (ro_parse_expr F 0 (pst_init ts) e) as (_ & _ & W & _). change (ro_pext e (pst_init ts)) with (pst_init (ts ++ e)) in W.
  split.
  - intros r <- H. apply W. left. exact H.
  - intros r' <- H. apply W. right. exact H.
Qed.

(* a receive from the closed channel is a receive of a zero item: a run that made at most |ts| + j receives is, up
   to the zero items left over, the run on [ts] followed by j zero items *)
Theorem ro_parse_expr_zero_padding F ts j :
  (forall r, parse_expr F 0 (pst_init ts) = r ->
     match ro_fin r with Some q => (p_recv q <= length ts + j)%nat | None => False end ->
     exists j', parse_expr F 0 (pst_init (ts ++ ro_zeros j)) = ro_rext (ro_zeros j') r) /\
  (forall r', parse_expr F 0 (pst_init (ts ++ ro_zeros j)) = r' ->
     match ro_fin r' with Some q => (p_recv q <= length ts + j)%nat | None => False end ->
     exists j', r' = ro_rext (ro_zeros j') (parse_expr F 0 (pst_init ts))).
Proof.
  destruct (ro_parse_expr F 0 (pst_init ts) (ro_zeros j)) as (_ & _ & _ & P). specialize (P j eq_refl).
  change (ro_pext (ro_zeros j) (pst_init ts)) with (pst_init (ts ++ ro_zeros j)) in P.
  assert (Hw : forall o, match o with Some q => (p_recv q <= length ts + j)%nat | None => False end ->
                         ro_within (pst_init (ts ++ ro_zeros j)) o).
  { intros [q|] H; [|exact H]. unfold ro_within, ro_avail, ro_zeros. cbn [pst_init p_recv p_rest].
    rewrite app_length, repeat_length. exact H. }
  split.
  - intros r <- H. apply P. left. apply Hw. exact H.
  - intros r' <- H. apply P. right. apply Hw. exact H.
Qed.

Print Assumptions ro_parse_expr.
Print Assumptions ro_parse_expr_zero_padding.
Print Assumptions ro_parse_print.
Print Assumptions ro_parse_expr_depends_on_received.
