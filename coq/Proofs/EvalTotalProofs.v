(* C01: the Spec evaluator is total in the sense that matters for reading eval_impl_spec:
   eval_spec returns a value, "no value" (Err) or OutOfModel -- never Crash, Diverge or
   OutOfFuel.  So the only Spec outcome eval_impl_spec does not speak about is OutOfModel. *)
From Coq Require Import Lia ZifyBool.
From Soy Require Import Model.Bytes Model.Num Model.Values Model.Outcome Model.ExprTrans Spec.Expr
  Proofs.ValueProofs Proofs.EvalProofs Proofs.EvalMainProofs.
Open Scope N_scope.

Definition benign {A} (o : outcome A) : Prop :=
  match o with Crash _ | Diverge | OutOfFuel => False | _ => True end.

Lemma benign_bind {A B} (o : outcome A) (g : A -> outcome B) :
  benign o -> (forall a, benign (g a)) -> benign (bind o g).
Proof. destruct o; cbn; auto. Qed.

Lemma to_string_benign : forall f v, (depth v < f)%nat -> benign (to_string f v).
Proof.
  induction f as [|f IH]; intros v Hd; [lia|].
  destruct v as [| |x|z|x|t|i l|i m]; try exact I.
  - destruct x; exact I.
  - cbn [to_string]. destruct (fl_to_string x); exact I.
  - rewrite to_string_list. apply benign_bind; [|intros; exact I].
    assert (Hall : forall x, In x l -> (depth x < f)%nat).
    { intros x Hx. pose proof (fold_max_le depth x l Hx). cbn [depth] in Hd. lia. }
    clear Hd. induction l as [|x l IHl]; [exact I|].
    rewrite list_items_cons. apply benign_bind; [apply IH; apply Hall; left; reflexivity|].
    intros s. apply benign_bind; [apply IHl; intros y Hy; apply Hall; right; exact Hy | intros; exact I].
  - rewrite to_string_map. apply benign_bind; [|intros; exact I].
    assert (Hall : forall kx, In kx m -> (depth (snd kx) < f)%nat).
    { intros kx Hx. pose proof (fold_max_le (fun kx => depth (snd kx)) kx m Hx). cbn [depth] in Hd. lia. }
    clear Hd. induction m as [|[k x] m IHm]; [exact I|].
    rewrite map_items_cons. apply benign_bind.
    + unfold entry_string. destruct x; try exact I; apply IH; apply (Hall (k, _)); left; reflexivity.
    + intros s. apply benign_bind; [apply IHm; intros y Hy; apply Hall; right; exact Hy | intros; exact I].
Qed.

Lemma value_string_benign v : benign (value_string v).
Proof. unfold value_string. apply to_string_benign. lia. Qed.

Lemma number_of_benign v : benign (number_of v).
Proof. destruct v; cbn; try exact I. destruct (fl_of_int z); exact I. Qed.
Lemma int_result_benign z : benign (int_result z).
Proof. unfold int_result. destruct (in_int64 z); exact I. Qed.
Lemma float_result_benign o : benign (float_result o).
Proof. destruct o; exact I. Qed.

Lemma float2_benign h a c : benign (x <- number_of a ;; y <- number_of c ;; float_result (h x y)).
Proof.
  apply benign_bind; [apply number_of_benign|]. intros x.
  apply benign_bind; [apply number_of_benign|]. intros y. apply float_result_benign.
Qed.

Lemma concat_benign a c : benign (s1 <- value_string a ;; s2 <- value_string c ;; Ok (VStr (s1 ++ s2))).
Proof.
  apply benign_bind; [apply value_string_benign|]. intros s1.
  apply benign_bind; [apply value_string_benign|]. intros s2. exact I.
Qed.

Lemma sem_order_benign op a c : benign (sem_order op a c).
Proof.
  unfold sem_order. apply benign_bind; [apply number_of_benign|]. intros x.
  apply benign_bind; [apply number_of_benign|]. intros y. exact I.
Qed.

Lemma sem_strict_benign op a c : benign (sem_strict op a c).
Proof.
  destruct op; cbn [sem_strict]; try exact I; try apply sem_order_benign.
  - unfold sem_int_or_float. destruct a, c; try apply float2_benign. apply int_result_benign.
  - apply float2_benign.
  - unfold sem_mod, no_value. destruct a, c; try exact I. destruct (z0 =? 0)%Z; [exact I | apply int_result_benign].
  - unfold sem_add. destruct a, c; try apply float2_benign; try apply concat_benign. apply int_result_benign.
  - unfold sem_int_or_float. destruct a, c; try apply float2_benign. apply int_result_benign.
Qed.

Lemma sem_neg_benign v : benign (sem_neg v).
Proof. destruct v; cbn; try exact I. apply int_result_benign. Qed.

Lemma index_of_benign v : benign (index_of v).
Proof.
  destruct v; cbn [index_of]; try exact I;
    (apply benign_bind; [apply value_string_benign | intros; exact I]).
Qed.

Lemma access_step_benign r ns ix : benign (access_step r ns ix).
Proof. destruct r, ix; cbn; try exact I; destruct ns; exact I. Qed.

Lemma round_benign x : benign (round_half_away x).
Proof.
  unfold round_half_away.
  destruct (fl_isneg x && negb (fl_is_zero x)).
  - destruct (fl_sub x half_up) as [y|]; [|exact I]. destruct (fl_ceil_Z y); [apply int_result_benign | exact I].
  - destruct (fl_add x half_up) as [y|]; [|exact I]. destruct (fl_floor_Z y); [apply int_result_benign | exact I].
Qed.

Lemma round_res_benign v : benign (x <- number_of v ;; r <- round_half_away x ;; Ok (RValue r)).
Proof.
  apply benign_bind; [apply number_of_benign|]. intros x.
  apply benign_bind; [apply round_benign | intros; exact I].
Qed.

Lemma minmax_benign h a c : benign (x <- number_of a ;; y <- number_of c ;; r <- float_result (h x y) ;; Ok (RValue r)).
Proof.
  apply benign_bind; [apply number_of_benign|]. intros x.
  apply benign_bind; [apply number_of_benign|]. intros y.
  apply benign_bind; [apply float_result_benign | intros; exact I].
Qed.

Lemma if_benign {A} (c : bool) (x y : outcome A) : benign x -> benign y -> benign (if c then x else y).
Proof. destruct c; auto. Qed.

Lemma opt_int_benign (o : option Z) :
  benign (match o with Some z => r <- int_result z ;; Ok (RValue r) | None => OutOfModel end).
Proof. destruct o; [apply benign_bind; [apply int_result_benign | intros; exact I] | exact I]. Qed.

Lemma round_digits_benign v d :
  benign (x <- number_of v ;; if (d =? 0)%Z then r <- round_half_away x ;; Ok (RValue r) else OutOfModel).
Proof.
  apply benign_bind; [apply number_of_benign|]. intros x.
  apply if_benign; [apply benign_bind; [apply round_benign | intros; exact I] | exact I].
Qed.

(* every clause of apply_fn_spec is a value, no value, OutOfModel, or one of the shapes above *)
Ltac ben := solve [ exact I | apply round_res_benign | apply minmax_benign | apply round_digits_benign
                  | apply opt_int_benign | apply if_benign; exact I ].

Lemma apply_fn_benign f args : benign (apply_fn_spec f args).
Proof.
  destruct f; destruct args as [|a [|c [|d [|? ?]]]]; try ben;
    try (destruct a; try ben); try (destruct c; try ben); try (destruct d; try ben).
Qed.

Definition rbenign {A} (r : R A) : Prop := forall n, benign (r n).

Lemma rbenign_bind {A B} (r : R A) (g : A -> R B) : rbenign r -> (forall a, rbenign (g a)) -> rbenign (rbind r g).
Proof.
  intros Hr Hg n. unfold rbind. specialize (Hr n). destruct (r n) as [[a n']| | | | |]; cbn in *; auto.
  apply Hg.
Qed.
Lemma rbenign_ret {A} (x : A) : rbenign (rret x).
Proof. intros n. exact I. Qed.
Lemma rbenign_err {A} : rbenign (@rerr A).
Proof. intros n. exact I. Qed.
Lemma rbenign_lift {A} (o : outcome A) : benign o -> rbenign (rlift o).
Proof. intros H n. unfold rlift. destruct o; cbn in *; auto. Qed.

Section Total.
Variable G env : list (bstr * value).
Variable ij : option value.
Local Notation ev := (eval_spec G env ij).

Lemma items_benign es : Forall (fun e => rbenign (ev e)) es -> rbenign (ev_items ev es).
Proof.
  induction 1 as [|e r He _ IH]; cbn [ev_items]; [apply rbenign_ret|].
  apply rbenign_bind; [exact He|]. intros v. apply rbenign_bind; [exact IH|intros; apply rbenign_ret].
Qed.

Lemma entries_benign kvs : Forall (fun kv => rbenign (ev (snd kv))) kvs -> rbenign (ev_entries ev kvs).
Proof.
  induction 1 as [|[k e] r He _ IH]; cbn [ev_entries]; [apply rbenign_ret|].
  apply rbenign_bind; [exact He|]. intros v. apply rbenign_bind; [exact IH|intros; apply rbenign_ret].
Qed.

Definition acc_benign (a : access) : Prop := match a with AExpr _ e => rbenign (ev e) | _ => True end.

Lemma accesses_benign accs : Forall acc_benign accs -> forall ref, rbenign (ev_accesses ev accs ref).
Proof.
  induction 1 as [|a rest Ha _ IH]; intros ref; cbn [ev_accesses]; [apply rbenign_ret|].
  apply rbenign_bind.
  - destruct a as [ns k | ns i | ns e]; try apply rbenign_ret.
    apply rbenign_bind; [exact Ha|]. intros v. apply rbenign_lift, index_of_benign.
  - intros ix. apply rbenign_bind; [apply rbenign_lift, access_step_benign|].
    intros [v|v]; [apply rbenign_ret|apply IH].
Qed.

Lemma defined_benign e : rbenign (ev e) -> rbenign (ev_defined ev e).
Proof.
  intros H. unfold ev_defined. apply rbenign_bind; [exact H|]. intros v.
  destruct (is_undef v); [apply rbenign_err | apply rbenign_ret].
Qed.

Theorem eval_spec_benign e : rbenign (ev e).
Proof.
  induction e using expr_nested_ind with (Q := acc_benign); cbn [eval_spec acc_benign];
    try apply rbenign_ret; try exact I; try assumption.
  - apply rbenign_bind; [apply items_benign; assumption|]. intros vs k. unfold new_list_literal. destruct vs; exact I.
  - apply rbenign_bind; [apply entries_benign; assumption|]. intros m k. exact I.
  - destruct (assoc_s n G); [apply rbenign_ret | apply rbenign_err].
  - apply accesses_benign. assumption.
  - case_eq ij; [intros v Eij; rewrite <- Eij; apply accesses_benign; assumption|intros _; apply rbenign_err].
  - destruct (existsb (Nat.eqb (length args)) (fn_arities f)); [|apply rbenign_err].
    apply rbenign_bind; [apply items_benign; assumption|].
    intros vs. apply rbenign_bind; [apply rbenign_lift; apply apply_fn_benign|].
    intros [v | l | m] k; [exact I | unfold new_list_result; destruct l; exact I | exact I].
  - apply rbenign_bind; [apply defined_benign; assumption|]. intros v. apply rbenign_lift. apply sem_neg_benign.
  - apply rbenign_bind; [assumption | intros; apply rbenign_ret].
  - destruct op;
      try (apply rbenign_bind; [apply defined_benign; eassumption|]; intros x;
           apply rbenign_bind; [apply defined_benign; eassumption|]; intros y;
           apply rbenign_lift; apply sem_strict_benign);
      (apply rbenign_bind; [eassumption|]; intros x).
    + apply rbenign_bind; [eassumption|]; intros y. apply rbenign_ret.
    + apply rbenign_bind; [eassumption|]; intros y. apply rbenign_ret.
    + destruct (truthy x); [|apply rbenign_ret]. apply rbenign_bind; [eassumption|]; intros y. apply rbenign_ret.
    + destruct (truthy x); [apply rbenign_ret|]. apply rbenign_bind; [eassumption|]; intros y. apply rbenign_ret.
  - apply rbenign_bind; [eassumption|]. intros x. destruct (null_or_undef x); [assumption | apply rbenign_ret].
  - apply rbenign_bind; [eassumption|]. intros x. destruct (truthy x); assumption.
Qed.

(* eval_spec returns a value, no value, or OutOfModel *)
Theorem eval_spec_trichotomy e n :
  (exists v n', eval_spec G env ij e n = Ok (v, n')) \/ (exists m, eval_spec G env ij e n = Err m) \/
  eval_spec G env ij e n = OutOfModel.
Proof.
  pose proof (eval_spec_benign e n) as H.
  destruct (eval_spec G env ij e n) as [[v n']| m | m | | |]; cbn in H; try contradiction; eauto.
Qed.
End Total.
