(* C02, part 1: the simulation relation between one run of the tree walker
   (Model/Interp.v, a state monad over the scope STACK) and the lexical
   semantics (Spec/Cmd.v); its bind rule; the scope-stack abstraction
   [flatten]; and the simulation of the walker's primitives (get, set, push,
   pop, lookup, fresh ids).  The expression clauses are Proofs/ScopeExprProofs.v.  *)
From Soy Require Import Model.Bytes Model.Num Model.Values Model.Outcome Model.Ast
  Model.Escape Model.Directives Model.Print Generated.Tables Model.Interp Spec.Cmd
  Proofs.InterpLogic Proofs.ValueProofs Proofs.ConvertProofs.
From Soy Require Export Proofs.BytesBase.
Open Scope N_scope.

Definition env_eq (a c : env) : Prop := forall k, assoc_s k a = assoc_s k c.

(* deepest frame first *)
Fixpoint flatten (s : scope) : env :=
  match s with [] => [] | f :: r => f_vars f ++ flatten r end.

Lemma sc_lookup_flatten s k : sc_lookup s k = assoc_s k (flatten s).
Proof.
  induction s as [|f r IH]; cbn; [reflexivity|].
  rewrite assoc_s_app, IH. reflexivity.
Qed.

Lemma env_eq_refl a : env_eq a a. Proof. intros k; reflexivity. Qed.
Lemma env_eq_app a a' c c' : env_eq a a' -> env_eq c c' -> env_eq (a ++ c) (a' ++ c').
Proof. intros H1 H2 k. rewrite !assoc_s_app, H1, H2. reflexivity. Qed.
Lemma env_eq_cons k v a c : env_eq a c -> env_eq ((k, v) :: a) ((k, v) :: c).
Proof. intros H q. cbn. rewrite H. reflexivity. Qed.

Lemma env_eq_map_set k v a m : env_eq a m -> env_eq ((k, v) :: a) (map_set m k v).
Proof. intros H q. cbn. rewrite assoc_s_map_set, H. reflexivity. Qed.

Definition top_unentered (c : scope) : Prop := exists f r, c = f :: r /\ f_entered f = false.

(* [en] is what the stack shows; [entry] is what data="all" would pass *)
Definition R (c : scope) (en entry : env) : Prop :=
  env_eq en (flatten c) /\ exists s, sc_alldata c = Some s /\ env_eq entry (flatten s).

Lemma R_env c en entry : R c en entry -> env_eq en (flatten c).
Proof. intros [H _]; exact H. Qed.

Lemma R_push c en entry : R c en entry -> R (sc_push c) en entry.
Proof. intros [H1 H2]. split; [exact H1 | exact H2]. Qed.

Lemma top_unentered_push c : top_unentered (sc_push c).
Proof. exists fresh_frame, c. split; reflexivity. Qed.

Lemma sc_set_cons f r k v :
  sc_set (f :: r) k v = {| f_vars := map_set (f_vars f) k v; f_entered := f_entered f; f_origin := f_origin f |} :: r.
Proof. reflexivity. Qed.

Lemma top_unentered_set c k v : top_unentered c -> top_unentered (sc_set c k v).
Proof. intros (f & r & -> & He). rewrite sc_set_cons. eexists _, r. split; [reflexivity | exact He]. Qed.

Lemma tl_sc_set c k v : tl (sc_set c k v) = tl c.
Proof. destruct c; reflexivity. Qed.

(* a binding made on the (unentered) top frame extends the environment and leaves the entry data alone *)
Lemma R_set c en entry k v :
  top_unentered c -> R c en entry -> R (sc_set c k v) ((k, v) :: en) entry.
Proof.
  intros (f & r & -> & He) [H1 (s & Hs & H2)]. rewrite sc_set_cons. split.
  - intros q. cbn [flatten f_vars]. cbn [assoc_s]. rewrite assoc_s_app, assoc_s_map_set.
    destruct (bstr_eqb q k); [reflexivity|]. rewrite H1. cbn [flatten]. apply assoc_s_app.
  - exists s. split; [|exact H2]. cbn in Hs |- *. rewrite He in Hs |- *. exact Hs.
Qed.

(* fault-free writer *)
Definition good (st : mstate) : Prop := calls_left st = None /\ bytes_left st = None.

(* [st'] differs from [st] by the Write calls [ws] (latest first) to the current destination *)
Definition emits (st st' : mstate) (o : bstr) : Prop :=
  exists ws, concat_b (rev ws) = o /\
    match bufs st with
    | [] => out st' = ws ++ out st /\ bufs st' = []
    | buf :: rest => out st' = out st /\ bufs st' = (ws ++ buf) :: rest
    end.
(* after a fault only the top-level output matters *)
Definition fails (st st' : mstate) (o : bstr) : Prop :=
  match bufs st with
  | [] => exists ws, concat_b (rev ws) = o /\ out st' = ws ++ out st
  | _ :: _ => out st' = out st
  end.

Lemma emits_refl st : emits st st [].
Proof. exists []. split; [reflexivity|]. destruct (bufs st); split; reflexivity. Qed.

Lemma emits_trans a c d o1 o2 : emits a c o1 -> emits c d o2 -> emits a d (o1 ++ o2).
Proof.
  intros (w1 & E1 & H1) (w2 & E2 & H2). exists (w2 ++ w1). split.
  - rewrite rev_app_distr, concat_b_app, E1, E2. reflexivity.
  - destruct (bufs a) as [|buf rest].
    + destruct H1 as [Ho Hb]. rewrite Hb in H2. destruct H2 as [Ho2 Hb2].
      split; [rewrite Ho2, Ho, app_assoc; reflexivity | exact Hb2].
    + destruct H1 as [Ho Hb]. rewrite Hb in H2. destruct H2 as [Ho2 Hb2].
      split; [rewrite Ho2; exact Ho | rewrite Hb2, app_assoc; reflexivity].
Qed.

Lemma emits_fails a c d o1 o2 : emits a c o1 -> fails c d o2 -> fails a d (o1 ++ o2).
Proof.
  intros (w1 & E1 & H1) H2. unfold fails in *. destruct (bufs a) as [|buf rest].
  - destruct H1 as [Ho Hb]. rewrite Hb in H2. destruct H2 as (w2 & E2 & Ho2).
    exists (w2 ++ w1). split.
    + rewrite rev_app_distr, concat_b_app, E1, E2. reflexivity.
    + rewrite Ho2, Ho, app_assoc. reflexivity.
  - destruct H1 as [Ho Hb]. rewrite Hb in H2. rewrite H2. exact Ho.
Qed.

Lemma emits_init a a' c o : out a' = out a -> bufs a' = bufs a -> emits a' c o -> emits a c o.
Proof. intros Ho Hb (ws & E & H). exists ws. split; [exact E|]. rewrite Hb, Ho in H. exact H. Qed.
Lemma fails_init a a' c o : out a' = out a -> bufs a' = bufs a -> fails a' c o -> fails a c o.
Proof. unfold fails. intros Ho Hb H. rewrite Hb, Ho in H. exact H. Qed.
Lemma emits_final a c c' o : out c' = out c -> bufs c' = bufs c -> emits a c o -> emits a c' o.
Proof. intros Ho Hb (ws & E & H). exists ws. split; [exact E|]. rewrite Hb, Ho. exact H. Qed.
Lemma fails_final a c c' o : out c' = out c -> fails a c o -> fails a c' o.
Proof. unfold fails. intros Ho H. rewrite Ho. exact H. Qed.
Lemma emits_same st st' : out st' = out st -> bufs st' = bufs st -> emits st st' [].
Proof. intros Ho Hb. apply (emits_final st st st' [] Ho Hb (emits_refl st)). Qed.
Lemma fails_refl st : fails st st [].
Proof. unfold fails. destruct (bufs st); [exists []; split; reflexivity | reflexivity]. Qed.

(* [mr] = what the walker did from [st]; [sr] = what the Spec says.  [Q x y st'] relates the results. *)
Definition rel {A B} (st : mstate) (mr : outcome A * mstate) (sr : bstr * outcome (B * N))
           (Q : A -> B -> mstate -> Prop) : Prop :=
  match classify (snd sr) with
  | inl (y, nid') =>
      exists x, fst mr = Ok x /\ good (snd mr) /\ emits st (snd mr) (fst sr) /\ next_id (snd mr) = nid' /\ Q x y (snd mr)
  | inr e => fst mr = of_fault e /\ fails st (snd mr) (fst sr)
  end.

Lemma rel_ok {A B} st (x : A) st' o (y : B) nid' (Q : A -> B -> mstate -> Prop) :
  good st' -> emits st st' o -> next_id st' = nid' -> Q x y st' ->
  rel st (Ok x, st') (o, Ok (y, nid')) Q.
Proof. intros H1 H2 H3 H4. unfold rel. cbn. exists x. split; [reflexivity|]. split; [exact H1|]. split; [exact H2|]. split; assumption. Qed.

Lemma rel_mono {A B} st mr sr (Q Q' : A -> B -> mstate -> Prop) :
  rel st mr sr Q -> (forall x y s, Q x y s -> Q' x y s) -> rel st mr sr Q'.
Proof.
  unfold rel. destruct (classify (snd sr)) as [[y n]|e]; [|tauto].
  intros (x & H1 & H2 & H3 & H4 & H5) HQ. exists x. split; [exact H1|]. split; [exact H2|]. split; [exact H3|]. split; [exact H4|]. apply HQ, H5.
Qed.

Lemma rel_init {A B} st st0 mr sr (Q : A -> B -> mstate -> Prop) :
  out st0 = out st -> bufs st0 = bufs st -> rel st0 mr sr Q -> rel st mr sr Q.
Proof.
  unfold rel. intros Ho Hb. destruct (classify (snd sr)) as [[y n]|e].
  - intros (x & H1 & H2 & H3 & H4 & H5). exists x. split; [exact H1|]. split; [exact H2|]. split; [eapply emits_init; eauto|]. split; assumption.
  - intros [H1 H2]. split; [exact H1 | eapply fails_init; eauto].
Qed.

Lemma classify_recast {A B} (r : outcome A) e : classify r = inr e -> @recast A B r = of_fault e.
Proof. destruct r; cbn; intros H; inversion H; reflexivity. Qed.

Lemma sbind_ok {A B} (s : Cm A) (g : A -> Cm B) n o1 x n' :
  s n = (o1, Ok (x, n')) -> sbind s g n = (o1 ++ fst (g x n'), snd (g x n')).
Proof. intros H. unfold sbind. rewrite H. destruct (g x n'); reflexivity. Qed.
Lemma sbind_fault {A B} (s : Cm A) (g : A -> Cm B) n o1 r e :
  s n = (o1, r) -> classify r = inr e -> sbind s g n = (o1, of_fault e).
Proof.
  intros H Hc. unfold sbind. rewrite H. destruct r as [[x n']| | | | | ]; cbn in Hc; inversion Hc; reflexivity.
Qed.
Lemma sbind_ret_l {A B} (x : A) (g : A -> Cm B) n : sbind (sret x) g n = g x n.
Proof. unfold sbind, sret. destruct (g x n); reflexivity. Qed.
Lemma sbind_ret_r {A} (s : Cm A) n : sbind s sret n = s n.
Proof.
  unfold sbind, sret. destruct (s n) as [o [[x n']| | | | | ]]; try reflexivity.
  rewrite app_nil_r. reflexivity.
Qed.
Lemma sE_bind {A B} (e : E A) (k : A -> E B) n :
  sE (ebind e k) n = sbind (sE e) (fun x => sE (k x)) n.
Proof.
  unfold sE, ebind, sbind, bind. destruct (e n) as [[x n']| | | | | ]; reflexivity.
Qed.

Lemma rel_bind {A A' B B'} st (m : M A) (f : A -> M A') (s : Cm B) (g : B -> Cm B')
      (Q1 : A -> B -> mstate -> Prop) (Q2 : A' -> B' -> mstate -> Prop) :
  rel st (m st) (s (next_id st)) Q1 ->
  (forall x y st1, Q1 x y st1 -> good st1 -> rel st1 (f x st1) (g y (next_id st1)) Q2) ->
  rel st (mbind m f st) (sbind s g (next_id st)) Q2.
Proof.
  intros H1 H2. unfold rel in H1.
  destruct (s (next_id st)) as [o1 r1] eqn:Es. cbn [fst snd] in H1.
  destruct (classify r1) as [[y n1]|e] eqn:Ec.
  - apply classify_ok in Ec. subst r1.
    destruct H1 as (x & Hx & Hg & He & Hn & HQ).
    destruct (m st) as [r st1] eqn:Em. cbn [fst snd] in *. subst r.
    rewrite (mbind_ok _ _ _ _ _ Em), (sbind_ok _ _ _ _ _ _ Es).
    specialize (H2 x y st1 HQ Hg). rewrite Hn in H2. unfold rel in H2 |- *. cbn [fst snd].
    destruct (classify (snd (g y n1))) as [[y2 n2]|e2].
    + destruct H2 as (x2 & K1 & K2 & K3 & K4 & K5). exists x2. split; [exact K1|]. split; [exact K2|].
      split; [eapply emits_trans; eauto|]. split; assumption.
    + destruct H2 as [K1 K2]. split; [exact K1 | eapply emits_fails; eauto].
  - destruct H1 as [Hx Hf].
    destruct (m st) as [r st1] eqn:Em. cbn [fst snd] in *. subst r.
    rewrite (mbind_fault _ _ _ _ _ Em), (sbind_fault _ _ _ _ _ _ Es Ec).
    unfold rel. cbn [fst snd]. rewrite classify_of_fault. split; [reflexivity | exact Hf].
Qed.

(* a step of the walker that the Spec does not have *)
Lemma rel_bind_l {A A' B'} st (m : M A) (f : A -> M A') (s : Cm B')
      (Q1 : A -> unit -> mstate -> Prop) (Q2 : A' -> B' -> mstate -> Prop) :
  rel st (m st) (sret tt (next_id st)) Q1 ->
  (forall x st1, Q1 x tt st1 -> good st1 -> rel st1 (f x st1) (s (next_id st1)) Q2) ->
  rel st (mbind m f st) (s (next_id st)) Q2.
Proof.
  intros H1 H2. rewrite <- (sbind_ret_l tt (fun _ => s)).
  eapply rel_bind; [exact H1|]. intros x [] st1 HQ Hg. apply H2; assumption.
Qed.
Lemma rel_bind_r {A A' B} st (m : M A) (f : A -> M A') (s : Cm B)
      (Q1 : A -> B -> mstate -> Prop) (Q2 : A' -> B -> mstate -> Prop) :
  rel st (m st) (s (next_id st)) Q1 ->
  (forall x y st1, Q1 x y st1 -> good st1 -> rel st1 (f x st1) (sret y (next_id st1)) Q2) ->
  rel st (mbind m f st) (s (next_id st)) Q2.
Proof.
  intros H1 H2. rewrite <- (sbind_ret_r s). eapply rel_bind; eassumption.
Qed.
Lemma rel_ebind {A A' B B'} st (m : M A) (f : A -> M A') (e : E B) (k : B -> E B')
      (Q1 : A -> B -> mstate -> Prop) (Q2 : A' -> B' -> mstate -> Prop) :
  rel st (m st) (sE e (next_id st)) Q1 ->
  (forall x y st1, Q1 x y st1 -> good st1 -> rel st1 (f x st1) (sE (k y) (next_id st1)) Q2) ->
  rel st (mbind m f st) (sE (ebind e k) (next_id st)) Q2.
Proof. intros H1 H2. rewrite sE_bind. eapply rel_bind; eassumption. Qed.

Lemma rel_ret {A B} st (x : A) (y : B) (Q : A -> B -> mstate -> Prop) :
  good st -> Q x y st -> rel st (ret x st) (sret y (next_id st)) Q.
Proof.
  intros Hg HQ. apply rel_ok; auto. apply emits_refl.
Qed.
Lemma rel_eret {A B} st (x : A) (y : B) (Q : A -> B -> mstate -> Prop) :
  good st -> Q x y st -> rel st (ret x st) (sE (eret y) (next_id st)) Q.
Proof. exact (rel_ret st x y Q). Qed.

Lemma rel_fail {A B} st m (Q : A -> B -> mstate -> Prop) : rel st (@fail A m st) (@sfail B m (next_id st)) Q.
Proof. unfold rel, fail, sfail. cbn. split; [reflexivity | apply fails_refl]. Qed.
Lemma rel_efail {A B} st m (Q : A -> B -> mstate -> Prop) : rel st (@fail A m st) (sE (@efail B m) (next_id st)) Q.
Proof. exact (rel_fail st m Q). Qed.

(* the usual postconditions: scope and autoescape mode are as before *)
Definition Qe {A} (c : scope) (md : N) : A -> A -> mstate -> Prop :=
  fun x y s => x = y /\ ctx s = c /\ mode s = md.
Definition Qc {A B} (c : scope) (md : N) : A -> B -> mstate -> Prop :=
  fun _ _ s => ctx s = c /\ mode s = md.

Lemma rel_lift {A} st (o : outcome A) c md :
  good st -> ctx st = c -> mode st = md -> rel st (lift o st) (slift o (next_id st)) (Qe c md).
Proof.
  intros Hg Hc Hm. unfold rel, lift, slift, sE, elift, bind. destruct o as [x| | | | | ]; cbn;
    [apply rel_ok; auto using emits_refl; repeat split; assumption | split; [reflexivity | apply fails_refl] ..].
Qed.
Lemma rel_elift {A} st (o : outcome A) c md :
  good st -> ctx st = c -> mode st = md -> rel st (lift o st) (sE (elift o) (next_id st)) (Qe c md).
Proof. exact (rel_lift st o c md). Qed.

Lemma good_set_cur st p : good st -> good (set_cur st p). Proof. exact (fun H => H). Qed.
Lemma good_set_ctx st c : good st -> good (set_ctx st c). Proof. exact (fun H => H). Qed.
Lemma good_set_bufs st c : good st -> good (set_bufs st c). Proof. exact (fun H => H). Qed.
Lemma good_set_mode st c : good st -> good (set_mode st c). Proof. exact (fun H => H). Qed.

Lemma rel_write st w c md :
  good st -> ctx st = c -> mode st = md ->
  rel st (write w st) (semit w (next_id st)) (@Qc unit unit c md).
Proof.
  intros [Hg1 Hg2] Hc Hm. unfold semit.
  unfold write. destruct (bufs st) as [|buf rest] eqn:Hb.
  - rewrite Hg1, Hg2. apply rel_ok; [split; reflexivity| |reflexivity|split; assumption].
    exists [w]. split; [cbn; apply app_nil_r|]. rewrite Hb. cbn. rewrite ?Hb. split; reflexivity.
  - apply rel_ok; [split; assumption| |reflexivity|split; assumption].
    exists [w]. split; [cbn; apply app_nil_r|]. rewrite Hb. cbn. rewrite ?Hb. split; reflexivity.
Qed.

Lemma rel_write_all st ws c md :
  good st -> ctx st = c -> mode st = md ->
  rel st (write_all ws st) (semit (concat_b ws) (next_id st)) (@Qc unit unit c md).
Proof.
  revert st. induction ws as [|w ws IH]; intros st Hg Hc Hm.
  - apply rel_ret; [exact Hg | split; assumption].
  - cbn [write_all concat_b].
    assert (E : semit (w ++ concat_b ws) (next_id st) = sbind (semit w) (fun _ => semit (concat_b ws)) (next_id st))
      by reflexivity.
    rewrite E. eapply rel_bind; [apply rel_write; eassumption|].
    intros _ _ st1 [Hc1 Hm1] Hg1. apply IH; assumption.
Qed.

Lemma rel_modify_ghost {A' B'} st (g : mstate -> mstate) (f : unit -> M A') (s : Cm B') (Q2 : A' -> B' -> mstate -> Prop) :
  out (g st) = out st -> bufs (g st) = bufs st -> next_id (g st) = next_id st ->
  rel (g st) (f tt (g st)) (s (next_id (g st))) Q2 ->
  rel st (mbind (modify g) f st) (s (next_id st)) Q2.
Proof.
  intros Ho Hb Hn H. unfold mbind, modify. rewrite <- Hn. eapply rel_init; eassumption.
Qed.

Lemma rel_m_set st k v c md :
  good st -> ctx st = c -> c <> [] -> mode st = md ->
  rel st (m_set k v st) (sret tt (next_id st)) (@Qc unit unit (sc_set c k v) md).
Proof.
  intros Hg Hc Hne Hm. rewrite m_set_eq. rewrite Hc. destruct c as [|f r]; [congruence|].
  unfold sret.
  destruct (f_origin f); (apply rel_ok; [exact Hg | apply emits_same; reflexivity | reflexivity | split; [reflexivity | exact Hm]]).
Qed.

Lemma rel_m_lookup st k en c md :
  good st -> ctx st = c -> mode st = md -> env_eq en (flatten c) ->
  rel st (m_lookup k st) (sE (eret (env_lookup k en)) (next_id st)) (Qe c md).
Proof.
  intros Hg <- <- He. rewrite m_lookup_eq. unfold env_lookup. rewrite He, <- sc_lookup_flatten.
  destruct (sc_lookup (ctx st) k) as [v|].
  - apply rel_eret; [exact Hg | split; [reflexivity | split; reflexivity]].
  - unfold sE, eret. apply rel_ok; [exact Hg | apply emits_same; reflexivity | reflexivity | split; [reflexivity | split; reflexivity]].
Qed.

Lemma rel_fresh_list st l c md :
  good st -> ctx st = c -> mode st = md ->
  rel st (fresh_list l st) (sE (new_list l) (next_id st)) (Qe c md).
Proof.
  intros Hg Hc Hm. rewrite fresh_list_eq. unfold sE, new_list.
  destruct l; (apply rel_ok; [exact Hg | apply emits_same; reflexivity | reflexivity | split; [reflexivity | split; assumption]]).
Qed.
Lemma rel_fresh_list_or_nil st l c md :
  good st -> ctx st = c -> mode st = md ->
  rel st (fresh_list_or_nil l st) (sE (new_list_or_nil l) (next_id st)) (Qe c md).
Proof.
  intros Hg Hc Hm. rewrite fresh_list_or_nil_eq. unfold sE, new_list_or_nil.
  destruct l; (apply rel_ok; [exact Hg | apply emits_same; reflexivity | reflexivity | split; [reflexivity | split; assumption]]).
Qed.
Lemma rel_fresh_map st m c md :
  good st -> ctx st = c -> mode st = md ->
  rel st (fresh_map m st) (sE (new_map m) (next_id st)) (Qe c md).
Proof.
  intros Hg Hc Hm. rewrite fresh_map_eq. unfold sE, new_map.
  apply rel_ok; [exact Hg | apply emits_same; reflexivity | reflexivity | split; [reflexivity | split; assumption]].
Qed.

#[global] Arguments rel : simpl never.
#[global] Arguments emits : simpl never.
#[global] Arguments fails : simpl never.
#[global] Arguments good : simpl never.
