(* lex_expr_print: lexExpr on the printed text of an expression.  The machine-level statement lex_print
   (LexPrintMain.v) is turned into a statement about lex_items: the scanner model, run on print_node e
   in expression mode, returns the items of tokens_of e (types and texts) followed by the error item
   "unclosed tag" that lexExpr sends at the end of an expression. *)
From Soy Require Import Model.Bytes Model.Utf8 Model.Num Model.Values Model.Outcome Model.Ast Model.Token Model.NumLit Model.Quote
  Model.AstPrint Generated.Tables Model.Lexer Spec.ExprSyntax
  Proofs.Utf8Proofs Proofs.ExprParserProofs Proofs.LexerPrim Proofs.LexerStates Proofs.LexerProofs
  Proofs.LexTokens Proofs.LexNumbers Proofs.LexStrings Proofs.LexExpr Proofs.LexPrint Proofs.LexPrintMain.
From Coq Require Import ZifyBool Lia.
Open Scope Z_scope.

Section Top.
Variable uni_letter uni_digit : Z -> bool.
Variable inp : bstr.
Variable base : Z.
Notation ilen := (Z.of_nat (length inp)).
Notation steps := (steps uni_letter uni_digit inp base).
Notation run := (run uni_letter uni_digit inp ilen base).

Lemma steps_le n : forall m st l l1, steps n st l = Ok (LDone, l1) -> (n <= m)%nat -> steps m st l = Ok (LDone, l1).
Proof.
  intros m st l l1 H Hle. replace m with (n + (m - n))%nat by lia. rewrite (steps_app _ _ _ _ n (m - n) _ _ _ _ H). apply steps_done.
Qed.

Lemma run_is_steps f : forall st l lf, run f st l = Ok lf -> steps f st l = Ok (LDone, lf).
Proof.
  induction f as [|f IH]; intros st l lf H.
  - destruct st; cbn in H; try discriminate. injection H as <-. reflexivity.
  - destruct st; cbn [Lexer.run] in H;
      try (cbn [LexTokens.steps]; match type of H with bind ?x _ = _ => destruct x as [[st' l']| | | | |] end; cbn [bind] in H |- *; try discriminate; apply IH; exact H).
    injection H as <-. apply steps_done.
Qed.

(* a run that returns is determined by any sequence of steps that reaches the nil state *)
Lemma run_unique f n st l lf l1 : run f st l = Ok lf -> steps n st l = Ok (LDone, l1) -> lf = l1.
Proof.
  intros Hr Hs. pose proof (run_is_steps f st l lf Hr) as Hf.
  pose proof (steps_le f (Nat.max f n) st l lf Hf ltac:(lia)) as A.
  pose proof (steps_le n (Nat.max f n) st l l1 Hs ltac:(lia)) as B. congruence.
Qed.

End Top.

(* the step lexInsideTag takes at end of input: the error item "unclosed tag" *)
Definition eof_err (base : Z) (l1 : lx) : tok :=
  {| t_typ := itemError; t_pos := Z.to_N (base + l_pos l1); t_val := e_unclosed_tag |}.
Definition eof_state (base : Z) (l1 : lx) : lx :=
  {| l_pos := l_pos l1; l_start := l_start l1; l_width := 0; l_dd := l_dd l1; l_last := l_last l1;
     l_out := eof_err base l1 :: l_out l1; l_ticks := l_ticks l1 + 1 |}.

Lemma eof_step uni_letter uni_digit inp base l1 : 0 <= base -> span inp l1 [] [] ->
  step uni_letter uni_digit inp (Z.of_nat (length inp)) base LInsideTag l1 = Ok (LDone, eof_state base l1).
Proof.
  intros Hb Hs1. pose proof (next_eof inp l1 [] Hs1) as Hn. pose proof (span_bounds inp _ _ _ Hs1) as (Hbd & _).
  cbn [step]. unfold lex_inside_tag. rewrite Hn. cbn [bind].
  change (gen_isSpaceEOL eof) with false. cbv iota. change (eof =? 47) with false. cbv iota. cbn [bind].
  change (eof =? 36) with false. change (eof =? 46) with false. cbn [orb]. cbv iota.
  change (eof =? 91) with false. change (eof =? 93) with false. change (eof =? 63) with false. change (eof =? 45) with false.
  change (eof =? 125) with false. cbv iota. change ((48 <=? eof) && (eof <=? 57)) with false. cbv iota.
  change (existsb (Z.eqb eof) inside_tag_single_syms) with false. cbv iota.
  change (existsb (Z.eqb eof) inside_tag_cmp_syms) with false. cbv iota. change (eof =? 61) with false. cbv iota. cbn [bind].
  change (eof =? 34) with false. change (eof =? 39) with false. cbn [orb]. cbv iota. change (eof =? eof) with true. cbv iota.
  unfold errorf. cbn [ateof l_pos]. destruct (base + l_pos l1 <? 0) eqn:E; [lia|]. reflexivity.
Qed.

(* stated for a variable budget: with the model's own budget in place both sides would be evaluated *)
Lemma lex_run_at_entry uni_letter uni_digit fuel (expr_mode : bool) s :
  lex_run_at uni_letter uni_digit 0 fuel expr_mode s =
  run uni_letter uni_digit s (Z.of_nat (length s)) 0 fuel (entry_state expr_mode) lex_init.
Proof. reflexivity. Qed.

(* the items of a run that reaches the nil state are those of lex_items under its own budget *)
Lemma lex_items_steps uni_letter uni_digit (expr_mode : bool) txt k l' :
  uni_letter (-1) = false -> uni_digit (-1) = false ->
  steps uni_letter uni_digit txt 0 k (entry_state expr_mode) lex_init = Ok (LDone, l') ->
  lex_items uni_letter uni_digit (lex_budget txt) expr_mode txt = Ok (rev (l_out l')).
Proof.
  intros Hle Hde Hst. destruct (lex_total_linear uni_letter uni_digit Hle Hde 0 ltac:(lia) expr_mode txt) as (lf & Hr & _).
  unfold lex_items, lex_run. rewrite Hr. cbn [bind]. rewrite lex_run_at_entry in Hr.
  rewrite (run_unique uni_letter uni_digit txt 0 (lex_budget txt) k _ lex_init lf l' Hr Hst). reflexivity.
Qed.

Section Final.
Variable uni_letter uni_digit : Z -> bool.
Hypothesis letter_ascii : forall c, (c < 128)%N -> uni_letter (Z.of_N c) = ((65 <=? c) && (c <=? 90) || (97 <=? c) && (c <=? 122))%N.
Hypothesis digit_ascii : forall c, (c < 128)%N -> uni_digit (Z.of_N c) = digit_b c.
Hypothesis letter_eof : uni_letter (-1) = false.
Hypothesis digit_eof : uni_digit (-1) = false.

(* lexExpr(print e): the items of tokens_of e, then the error item at end of input *)
Theorem lex_expr_print e txt : wf_expr e -> lex_ok e -> print_node e = Some txt ->
  exists ts err, lex_items uni_letter uni_digit (lex_budget txt) true txt = Ok (ts ++ [err]) /\
                 map tv ts = toks e /\ t_typ err = itemError.
Proof.
  intros Hwf Hlo Hp.
  assert (Hs0 : span txt lex_init [] (txt ++ [])).
  { unfold span, lex_init. cbn [l_start l_pos length]. rewrite app_nil_r. repeat split; try lia. }
  destruct (lex_print uni_letter uni_digit letter_ascii digit_ascii letter_eof digit_eof txt 0 e Hwf Hlo txt Hp lex_init [] Hs0 eq_refl I)
    as (k & l1 & Hst & Hs1 & Hse & _).
  destruct (sends_out _ _ _ Hse) as (items & Ho & Hm & _).
  exists items, (eof_err 0 l1). split; [|split; [exact Hm|reflexivity]].
  rewrite (lex_items_steps uni_letter uni_digit true txt (k + 1) (eof_state 0 l1) letter_eof digit_eof).
  - unfold eof_state. cbn [l_out]. rewrite Ho. cbn [lex_init l_out rev]. rewrite app_nil_r, rev_involutive. reflexivity.
  - cbn [entry_state]. rewrite (steps_app _ _ _ _ k 1 _ _ _ _ Hst). apply steps_one. exact (eof_step uni_letter uni_digit txt 0 l1 ltac:(lia) Hs1).
Qed.

End Final.

(* the unicode tables of the toolchain satisfy the hypotheses: on ASCII they are the ASCII classes *)
Lemma tables_ascii :
  (forall c, (c < 128)%N -> is_letter_tbl (Z.of_N c) = ((65 <=? c) && (c <=? 90) || (97 <=? c) && (c <=? 122))%N) /\
  (forall c, (c < 128)%N -> is_digit_tbl (Z.of_N c) = digit_b c).
Proof.
  assert (H : forallb (fun c => Bool.eqb (is_letter_tbl (Z.of_N c)) ((65 <=? c) && (c <=? 90) || (97 <=? c) && (c <=? 122))%N
                              && Bool.eqb (is_digit_tbl (Z.of_N c)) (digit_b c)) (map N.of_nat (seq 0 128)) = true) by (vm_compute; reflexivity).
  rewrite forallb_forall in H.
  assert (Hin : forall c, (c < 128)%N -> In c (map N.of_nat (seq 0 128))).
  { intros c Hc. apply in_map_iff. exists (N.to_nat c). split; [lia|]. apply in_seq. lia. }
  split; intros c Hc; specialize (H c (Hin c Hc)); apply Bool.andb_true_iff in H; destruct H as [H1 H2];
    [apply Bool.eqb_prop in H1; exact H1|apply Bool.eqb_prop in H2; exact H2].
Qed.

(* the instance with the tables: what the model runner executes *)
Theorem lex_expr_print_tbl e txt : wf_expr e -> lex_ok e -> print_node e = Some txt ->
  exists ts err, lex_items is_letter_tbl is_digit_tbl (lex_budget txt) true txt = Ok (ts ++ [err]) /\
                 map tv ts = toks e /\ t_typ err = itemError.
Proof.
  destruct tables_ascii as [Hl Hd]. destruct tables_eof as [El Ed].
  apply (lex_expr_print is_letter_tbl is_digit_tbl Hl Hd El Ed).
Qed.
