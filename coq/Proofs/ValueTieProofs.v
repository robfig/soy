(* C20: the hand model of data/value.go (Model/Values.v) against the bodies of the Truthy and
   Equals methods as tablegen translates them from the current Go source (Generated/Tables.v).
   These finite lemmas are re-checked on every run; when the source and the model part, this
   file stops compiling (a broken proof obligation of C20). *)
From Soy Require Import Model.Bytes Model.Num Model.Outcome Model.Values Generated.Tables Proofs.ValueProofs.
Open Scope N_scope.

(* what each Truthy body may look at *)
Definition gen_truthy (v : value) : bool :=
  match v with
  | VUndef => gen_truthy_undefined
  | VNull => gen_truthy_null
  | VBool x => gen_truthy_bool x
  | VInt z => gen_truthy_int (z =? 0)%Z
  | VFloat f => gen_truthy_float (fl_is_zero f) (fl_is_nan f)
  | VStr s => gen_truthy_string (match s with [] => true | _ => false end)
  | VList _ _ => gen_truthy_list
  | VMap _ _ => gen_truthy_map
  end.

(* the three possible combinations (is_zero, is_nan) of a float *)
Lemma gen_truthy_float_table :
  forallb (fun zn => Bool.eqb (gen_truthy_float (fst zn) (snd zn)) (negb (fst zn) && negb (snd zn)))
          [(false, false); (true, false); (false, true)] = true.
Proof. vm_compute. reflexivity. Qed.

Lemma gen_truthy_scalar_tables :
  Bool.eqb gen_truthy_undefined false && Bool.eqb gen_truthy_null false &&
  Bool.eqb gen_truthy_list true && Bool.eqb gen_truthy_map true &&
  forallb (fun x => Bool.eqb (gen_truthy_bool x) x && Bool.eqb (gen_truthy_int x) (negb x) && Bool.eqb (gen_truthy_string x) (negb x))
          [true; false] = true.
Proof. vm_compute. reflexivity. Qed.

Theorem gen_truthy_agrees v : truthy v = gen_truthy v.
Proof.
  destruct v as [| |x|z|f|s|i l|i m]; cbn [truthy gen_truthy].
  - reflexivity.
  - reflexivity.
  - destruct x; reflexivity.
  - destruct (z =? 0)%Z; reflexivity.
  - destruct f; reflexivity.
  - destruct s; reflexivity.
  - reflexivity.
  - reflexivity.
Qed.

Definition equals_mode (k1 k2 : N) : N :=
  match find (fun t => (fst (fst t) =? k1) && (snd (fst t) =? k2)) gen_equals_kinds with
  | Some t => snd t
  | None => 0
  end.

Definition as_float (v : value) : option fl :=
  match v with VInt z => fl_of_int z | VFloat f => Some f | _ => None end.

(* what each kind of comparison in an Equals body computes *)
Definition equals_by_mode (mode : N) (a c : value) : bool :=
  match mode with
  | 1 => match a, c with                      (* v == o on two values of the receiver's type *)
         | VBool x, VBool y => Bool.eqb x y
         | VInt x, VInt y => (x =? y)%Z
         | VFloat f, VFloat g => fl_eqb f g
         | VStr s, VStr t => bstr_eqb s t
         | _, _ => false
         end
  | 2 => match as_float a, as_float c with     (* float64(v) == float64(o) *)
         | Some f, Some g => fl_eqb f g
         | _, _ => false
         end
  | 3 => match a, c with                      (* same data pointer *)
         | VList i _, VList j _ | VMap i _, VMap j _ => i =? j
         | _, _ => false
         end
  | 4 => true
  | _ => false
  end.

(* the table has one row per pair of kinds *)
Lemma gen_equals_kinds_complete :
  forallb (fun k1 => forallb (fun k2 =>
    match find (fun t => (fst (fst t) =? k1) && (snd (fst t) =? k2)) gen_equals_kinds with Some _ => true | None => false end)
    [0; 1; 2; 3; 4; 5; 6; 7]) [0; 1; 2; 3; 4; 5; 6; 7] = true
  /\ List.length gen_equals_kinds = 64%nat.
Proof. split; vm_compute; reflexivity. Qed.

Theorem gen_equals_agrees a c : equals a c = equals_by_mode (equals_mode (vkind a) (vkind c)) a c.
Proof.
  destruct a, c; try reflexivity.
  (* Float receiver, Int operand: float64(v) == float64(o) with the operands in the other order *)
  cbn [equals]. unfold int_float_eqb.
  change (equals_by_mode (equals_mode (vkind (VFloat f)) (vkind (VInt z))) (VFloat f) (VInt z))
    with (match fl_of_int z with Some g => fl_eqb f g | None => false end).
  destruct (fl_of_int z); [apply fl_eqb_sym | reflexivity].
Qed.
