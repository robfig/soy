(* C14, token grammar, bytes: basic facts for splitting a run of the byte lexer at a chunk boundary --
   spans, prefixes, the punctuator table, the white-space lookahead of the 'line break before' flag. *)
From Soy Require Import Model.Bytes Model.JsGen Spec.JsSyntax Proofs.BytesBase.
From Coq Require Import ZifyBool Lia.
Open Scope N_scope.

Lemma prepend_nil (x : option (list jstoken * lexmode)) : option_map (fun '(t, m) => ([] ++ t, m)) x = x.
Proof. destruct x as [[t m]|]; reflexivity. Qed.
Lemma cons_tok_prepend t ts (x : option (list jstoken * lexmode)) :
  cons_tok t (option_map (fun '(t0, m) => (ts ++ t0, m)) x) = option_map (fun '(t0, m) => ((t :: ts) ++ t0, m)) x.
Proof. destruct x as [[t0 m]|]; reflexivity. Qed.
Lemma cons_tok_eq t x : option_map (fun '(ts, m') => (t :: ts, m')) x = cons_tok t x.
Proof. reflexivity. Qed.

Lemma span_le p s : (span p s <= length s)%nat.
Proof. induction s as [|c s IH]; cbn; [lia|]. destruct (p c); cbn; lia. Qed.
Lemma span_app_stop p r t : (span p r < length r)%nat -> span p (r ++ t) = span p r.
Proof. induction r as [|c r IH]; cbn; [lia|]. destruct (p c); [|reflexivity]. intro H. rewrite IH by lia. reflexivity. Qed.
Lemma span_app_all p r t : span p r = length r -> span p (r ++ t) = (length r + span p t)%nat.
Proof. induction r as [|c r IH]; cbn; [reflexivity|]. destruct (p c); [|discriminate]. intro H. rewrite IH by lia. reflexivity. Qed.
Lemma span_all_forallb p r : span p r = length r -> forallb p r = true.
Proof. induction r as [|c r IH]; cbn; [reflexivity|]. destruct (p c); [|discriminate]. intro H. apply IH. lia. Qed.
Lemma forallb_span_all p r : forallb p r = true -> span p r = length r.
Proof. induction r as [|c r IH]; cbn; [reflexivity|]. destruct (p c); [|discriminate]. intro H. rewrite IH by exact H. reflexivity. Qed.
Lemma span_stop_drop p r : (span p r < length r)%nat -> exists x t, drop (span p r) r = x :: t /\ p x = false.
Proof.
  induction r as [|c r IH]; cbn; [lia|]. destruct (p c) eqn:E.
  - intro H. cbn [drop]. apply IH. lia.
  - intros _. exists c, r. split; [reflexivity|exact E].
Qed.
Lemma span_head_false p x t : p x = false -> span p (x :: t) = O.
Proof. intro H. cbn. rewrite H. reflexivity. Qed.
Lemma span_app_gen p (r : bstr) b r' : (span p r = length r -> p b = false) -> span p (r ++ b :: r') = span p r.
Proof.
  intro H. pose proof (span_le p r) as Hle. destruct (Nat.eq_dec (span p r) (length r)) as [Q|Q].
  - rewrite span_app_all by exact Q. rewrite span_head_false by (apply H; exact Q). lia.
  - apply span_app_stop. lia.
Qed.

Lemma drop_length_app (s t : bstr) : drop (length s) (s ++ t) = t.
Proof. apply drop_app_len. Qed.

Lemma last_cons_ne {A} (c : A) r d : r <> [] -> last (c :: r) d = last r d.
Proof. destruct r; [congruence|reflexivity]. Qed.
Lemma last_forallb p (s : bstr) d : s <> [] -> forallb p s = true -> p (last s d) = true.
Proof.
  induction s as [|c s IH]; [congruence|]. intros _ H. cbn [forallb] in H. apply andb_prop in H. destruct H as [H1 H2].
  destruct s as [|c2 s]; [exact H1|]. rewrite last_cons_ne by discriminate. apply IH; [discriminate|exact H2].
Qed.
Lemma last_drop n : forall (s : bstr) d, (n < length s)%nat -> last (drop n s) d = last s d.
Proof.
  induction n as [|n IH]; intros s d H; [reflexivity|]. destruct s as [|c s]; cbn in H; [lia|]. cbn [drop].
  rewrite IH by lia. destruct s; [cbn in H; lia|reflexivity].
Qed.

Lemma is_prefix_cross p : forall s t, is_prefix p (s ++ t) = true ->
  is_prefix p s = true \/ exists b v r', p = s ++ b :: v /\ t = b :: r'.
Proof.
  induction p as [|a p IH]; intros s t H; [left; reflexivity|]. destruct s as [|c s].
  - cbn [app] in H. destruct t as [|b r']; [discriminate|]. cbn in H. apply andb_prop in H. destruct H as [H1 _].
    apply N.eqb_eq in H1. subst. right. exists b, p, r'. split; reflexivity.
  - cbn in H. apply andb_prop in H. destruct H as [H1 H2]. destruct (IH s t H2) as [L|(b & v & r' & E1 & E2)].
    + left. cbn. rewrite H1. exact L.
    + right. apply N.eqb_eq in H1. subst. exists b, v, r'. split; reflexivity.
Qed.

(* a and b stand next to each other in p *)
Fixpoint adj (a b : N) (p : bstr) : bool :=
  match p with
  | x :: ((y :: _) as r) => ((x =? a) && (y =? b)) || adj a b r
  | _ => false
  end.
Lemma adj_cons a b x y r : adj a b (x :: y :: r) = ((x =? a) && (y =? b)) || adj a b (y :: r).
Proof. reflexivity. Qed.
Lemma adj_split s : forall b v, s <> [] -> adj (last s 0) b (s ++ b :: v) = true.
Proof.
  induction s as [|c s IH]; intros b v H; [congruence|]. destruct s as [|c2 s].
  - cbn. rewrite !N.eqb_refl. reflexivity.
  - rewrite last_cons_ne by discriminate. change ((c :: c2 :: s) ++ b :: v) with (c :: c2 :: (s ++ b :: v)).
    rewrite adj_cons. change (c2 :: s ++ b :: v) with ((c2 :: s) ++ b :: v). rewrite IH by discriminate. apply orb_true_r.
Qed.
Definition glue (a b : N) : bool := existsb (fun e => adj a b (fst e)) punct_table.

Lemma find_punct_app tbl s t : s <> [] ->
  (forall b r', t = b :: r' -> existsb (fun e : bstr * option punct => adj (last s 0) b (fst e)) tbl = false) ->
  find_punct tbl (s ++ t) = find_punct tbl s.
Proof.
  intros Hs. induction tbl as [|[p r] tbl IH]; intro H; [reflexivity|]. cbn [find_punct].
  destruct (is_prefix p s) eqn:E.
  - rewrite is_prefix_app by exact E. reflexivity.
  - destruct (is_prefix p (s ++ t)) eqn:E2.
    + exfalso. destruct (is_prefix_cross p s t E2) as [L|(b & v & r' & E1 & Et)]; [congruence|].
      specialize (H b r' Et). cbn [existsb fst] in H. subst p. rewrite adj_split in H by exact Hs. discriminate.
    + apply IH. intros b r' Et. specialize (H b r' Et). cbn [existsb] in H. apply orb_false_elim in H. apply H.
Qed.

Lemma skip_spaces_all r t : skip_spaces r = [] -> skip_spaces (r ++ t) = skip_spaces t.
Proof. induction r as [|c r IH]; cbn; [reflexivity|]. destruct (is_space c); [exact IH|discriminate]. Qed.
Lemma skip_spaces_some r t : skip_spaces r <> [] -> skip_spaces (r ++ t) = skip_spaces r ++ t.
Proof. induction r as [|c r IH]; cbn; [congruence|]. destruct (is_space c); [exact IH|reflexivity]. Qed.
Lemma skip_spaces_span r : skip_spaces r = drop (span is_space r) r.
Proof. induction r as [|c r IH]; cbn; [reflexivity|]. destruct (is_space c); [exact IH|reflexivity]. Qed.
Lemma skip_spaces_nil_all r : skip_spaces r = [] -> forallb is_space r = true.
Proof. induction r as [|c r IH]; cbn; [reflexivity|]. destruct (is_space c); [exact IH|discriminate]. Qed.
Lemma skip_spaces_last r d : skip_spaces r <> [] -> last (skip_spaces r) d = last r d.
Proof.
  induction r as [|c r IH]; cbn [skip_spaces]; [congruence|]. destruct (is_space c) eqn:E.
  - intro H. rewrite IH by exact H. destruct r; [cbn in H; congruence|reflexivity].
  - reflexivity.
Qed.

(* the flag lookahead over r, continued by t: unchanged when r does not end in white space followed by ++,
   and not in a + followed by + *)
Lemma incr_app2 r t :
  (skip_spaces r = [] -> incr_next t = false) ->
  (r <> [] -> forall b r', t = b :: r' -> glue (last r 0) b = false) ->
  incr_next (r ++ t) = incr_next r /\ (incr_next r = true -> incr_skip (r ++ t) = incr_skip r).
Proof.
  intros Hsp Hgl. unfold incr_next, incr_skip. destruct (skip_spaces r) as [|x [|y w]] eqn:E.
  - rewrite skip_spaces_all by exact E. cbn [is_prefix]. split; [|discriminate]. apply Hsp. reflexivity.
  - rewrite skip_spaces_some by (rewrite E; discriminate). rewrite E. split.
    + cbn [app is_prefix]. destruct (43 =? x) eqn:Ex; [|reflexivity]. cbn [andb]. destruct t as [|b r']; [reflexivity|].
      cbn [is_prefix]. destruct (43 =? b) eqn:Eb; [|reflexivity]. exfalso.
      apply N.eqb_eq in Ex. apply N.eqb_eq in Eb. subst x b.
      assert (Hr : r <> []) by (intro; subst r; discriminate E).
      assert (L : last r 0 = 43). { rewrite <- (skip_spaces_last r 0) by (rewrite E; discriminate). rewrite E. reflexivity. }
      specialize (Hgl Hr 43 r' eq_refl). rewrite L in Hgl. vm_compute in Hgl. discriminate.
    + cbn [is_prefix]. rewrite andb_false_r. discriminate.
  - rewrite skip_spaces_some by (rewrite E; discriminate). rewrite E. split.
    + cbn [app is_prefix]. reflexivity.
    + intros _. f_equal. apply span_app_stop. pose proof (span_le is_space r) as Hle.
      destruct (Nat.eq_dec (span is_space r) (length r)) as [Q|Q]; [|lia].
      rewrite skip_spaces_span, Q, drop_whole in E. discriminate.
Qed.
Lemma space_last c r : is_space c = true -> skip_spaces r = [] -> is_space (last (c :: r) 0) = true.
Proof.
  intros Hc E. destruct r as [|c2 r2]; [exact Hc|]. rewrite last_cons_ne by discriminate.
  apply last_forallb; [discriminate|]. apply skip_spaces_nil_all. exact E.
Qed.
Lemma incr_app c r t :
  ((is_space (last (c :: r) 0) = true) -> incr_next t = false) ->
  (forall b r', t = b :: r' -> glue (last (c :: r) 0) b = false) ->
  is_space c = true ->
  incr_next (r ++ t) = incr_next r /\ (incr_next r = true -> incr_skip (r ++ t) = incr_skip r).
Proof.
  intros Hsp Hgl Hc. apply incr_app2.
  - intro E. apply Hsp. apply space_last; assumption.
  - intros Hr b r' Et. rewrite <- (last_cons_ne c r 0 Hr). exact (Hgl b r' Et).
Qed.
