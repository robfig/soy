(* C17 through the file entry point: parse.SoyFile(String(file)) for a file whose String() is source syntax.
   SoyFileNode.String() is the concatenation of the String()s of the file's nodes, and parse.SoyFile is itemList
   with the until set {EOF} over the items of the whole text under the budget file_fuel.  The nodes whose String()
   is source syntax are the commands of a body (TemplateNode prints the qualified name
   and drops attributes, NamespaceNode drops autoescape, SoyDocNode the description), so the files covered
   are the lists of body-level commands: exactly what parse.SoyFile accepts in front of the first template.
   Composition: bytes -> items (Proofs/LexBodyC17Body.v, class lb17_okb) -> itemList up to EOF reads the Spec's
   items as the body (Proofs/CmdRoundtripEof.v) -> any items with the same types and texts give the same tree up to
   positions (Proofs/CmdParserStripMain.v) -> the budget of the entry point is enough (Proofs/PrintCmdFile.v
   soy_file_of_big_fuel). *)
From Soy Require Import Model.Bytes Model.Outcome Model.Num Model.Ast Model.Token Model.RawText Model.Lexer Model.ExprParser Model.Parser Generated.Tables
  Model.AstPrint Model.AstPrintCmd Spec.ExprSyntax Spec.CmdSyntax Proofs.ExprParserRules Proofs.ExprParserStrip Proofs.ExprParserMono
  Proofs.ParserProofs Proofs.LexParseBridge Proofs.LexerProofs
  Proofs.CmdRoundtripBase Proofs.CmdRoundtripRules Proofs.CmdRoundtrip Proofs.CmdRoundtripEof
  Proofs.CmdParserStripDefs Proofs.CmdParserStripMain Proofs.CmdRoundtripStrip Proofs.PrintCmdFile
  Proofs.LexPrintMain Proofs.LexBodyC17 Proofs.LexBodyC17Cmds Proofs.LexBodyC17Body.
From Coq Require Import Lia.
Open Scope N_scope.

(* token level, from the initial state: ANY items with the types and texts of body_toks x followed by an EOF item *)
Theorem file_roundtrip_any_positions (inlen inlen' : N) (lexq : bstr -> list tok) (unq : bstr -> option bstr) :
  (forall s q, go_quote s = Some q -> unq q = Some s) ->
  forall q nodes e its,
  wf_body lexq (nameok [] []) false (NList q nodes) -> t_typ e = pit_EOF ->
  map strip_tok its = map strip_tok (body_toks (NList q nodes) ++ [e]) ->
  exists f0, forall f, (f0 <= f)%nat ->
    exists x' s', item_list inlen' lexq unq parse_expr expr_fuel f u_eof (cst_init its) = COk x' s' /\
                  cps_strip x' = cps_strip (NList q nodes).
Proof.
  intros Hunq q nodes e its Hwf He Hits.
  set (ts := body_toks (NList q nodes) ++ [e]) in *.
  destruct (parse_body_roundtrip_eof [] [] inlen lexq unq expr_fuel expr_fuel_ok Hunq false q nodes e [] Hwf He) as (pos' & HB).
  destruct (HB (cst_init ts) (pst_init ts) [] (stream_init ts) (conj eq_refl (conj eq_refl eq_refl))) as (p' & sc' & _ & f0 & HF).
  exists f0. intros f Hf. specialize (HF f f Hf Hf).
  change (set_ps (cst_init ts) (pst_init ts) []) with (cst_init ts) in HF.
  destruct (cps_body_expr_fuel inlen inlen' lexq unq f u_eof ts its _ _ (eq_sym Hits) HF) as (x' & s' & E & Hx).
  exists x', s'. split; [exact E|]. rewrite <- Hx. reflexivity.
Qed.

(* bytes -> tree through parse.SoyFile *)
Theorem soy_file_text_roundtrip (lexq : bstr -> list tok) (unq : bstr -> option bstr) :
  lexq_wf lexq -> (forall s q, go_quote s = Some q -> unq q = Some s) ->
  forall q ns txt,
  wf_body lexq (nameok [] []) false (NList q ns) -> lb17_okb ns -> print_tree (NList q ns) = Some txt ->
  exists its x' p',
    lex_items is_letter_tbl is_digit_tbl (lex_budget txt) false txt = Ok its /\
    po_result (soy_file (N.of_nat (length txt)) lexq unq its) = POk x' p' /\
    cps_strip x' = cps_strip (NList q ns).
Proof.
  intros Hq Hunq q ns txt Hwf Hok Hpr.
  destruct (lb17_lex_body_tbl q ns txt Hok Hpr) as (its & e & Hlex & He & Htv).
  destruct tables_eof as [El Ed].
  pose proof (lex_items_wf _ _ El Ed _ _ Hlex) as Hw. set (inlen := N.of_nat (length txt)) in *.
  assert (Hits : map strip_tok (its ++ [e]) = map strip_tok (body_toks (NList q ns) ++ [e])).
  { rewrite !map_app. f_equal. apply strip_tok_of_tv. exact Htv. }
  destruct (file_roundtrip_any_positions inlen inlen lexq unq Hunq q ns e (its ++ [e]) Hwf He Hits) as (f0 & HF).
  destruct (HF f0 (le_n _)) as (x' & s' & E & Hx).
  exists (its ++ [e]), x', (c_p s'). split; [exact Hlex|]. split; [|exact Hx].
  exact (soy_file_of_big_fuel inlen lexq unq (its ++ [e]) f0 x' s' Hq Hw E).
Qed.
