(* C19: the text of a parse error shows the file, line and column the error value carries
   (Spec/ErrText.v).  [error_format_is]: with the format literal tablegen reads from the source the spliced format is
   "template <name>:<line>:<col>: <body>".  [error_text_shows_position]: for a file name without a
   '%' the text of the error starts with "template <name>:<line>:<col>: " -- the very numbers of
   File() / Line() / Col() -- whatever the rest of the message is.  A name containing '%' is
   re-interpreted by the second formatting pass (the name is spliced into a FORMAT): outside the
   statement, observed to corrupt the text while File()/Line() stay right. *)
From Soy Require Import Model.Bytes Generated.Tables Spec.ErrText Proofs.ErrPosSites.
From Coq Require Import Lia List.
Import ListNotations.
Open Scope N_scope.

Definition template_lit : bstr := Eval vm_compute in b "template ".
Definition format_lit : bstr := Eval vm_compute in b "template %s:%d:%d: %s".
Lemma format_lit_is : parser_error_prefix_format = format_lit.
Proof. vm_compute. reflexivity. Qed.

Definition prefix_text (name : bstr) (line col : N) : bstr :=
  template_lit ++ name ++ [58] ++ dec_of_N line ++ [58] ++ dec_of_N col ++ [58; 32].

Lemma option_map_some {A B} (f : A -> B) o x : o = Some x -> option_map f o = Some (f x).
Proof. intros ->. reflexivity. Qed.

Lemma sprintf_tail body : sprintf [37; 115] [FStr body] = Some body.
Proof. cbn. rewrite app_nil_r. reflexivity. Qed.

Theorem error_format_is name line col body :
  error_format name line col body = Some (prefix_text name line col ++ body).
Proof.
  unfold error_format. rewrite format_lit_is. unfold prefix_text, format_lit, template_lit.
  cbn [sprintf option_map app]. rewrite app_nil_r. repeat (rewrite <- app_assoc; cbn [app]). reflexivity.
Qed.

Corollary error_prefix_is name line col : error_prefix name line col = Some (prefix_text name line col).
Proof. unfold error_prefix. rewrite error_format_is. rewrite app_nil_r. reflexivity. Qed.

(* decimal digits are not '%' *)
Lemma dec_digits_digits fuel : forall n acc, Forall (fun c => 48 <= c <= 57) acc -> Forall (fun c => 48 <= c <= 57) (dec_digits fuel n acc).
Proof.
  induction fuel as [|f IH]; intros n acc H; cbn [dec_digits]; [exact H|].
  assert (Hd : Forall (fun c => 48 <= c <= 57) ((48 + n mod 10) :: acc)).
  { constructor; [|exact H]. pose proof (N.mod_upper_bound n 10 ltac:(discriminate)) as Hm. generalize dependent (n mod 10). intros m Hm. lia. }
  destruct (n / 10 =? 0); [exact Hd|apply IH; exact Hd].
Qed.
Lemma dec_of_N_no_percent n : ~ In 37 (dec_of_N n).
Proof.
  unfold dec_of_N. intros H. pose proof (dec_digits_digits (S (N.to_nat (N.log2 n))) n [] (Forall_nil _)) as F.
  rewrite Forall_forall in F. specialize (F _ H). lia.
Qed.

Lemma prefix_text_no_percent name line col : ~ In 37 name -> ~ In 37 (prefix_text name line col).
Proof.
  intros Hn H. unfold prefix_text in H. repeat (apply in_app_or in H; destruct H as [H|H]).
  - unfold template_lit in H. cbn [In] in H. repeat (destruct H as [H|H]; [discriminate H|]). exact H.
  - exact (Hn H).
  - cbn in H. destruct H as [H|[]]. discriminate.
  - exact (dec_of_N_no_percent _ H).
  - cbn in H. destruct H as [H|[]]. discriminate.
  - exact (dec_of_N_no_percent _ H).
  - cbn in H. destruct H as [H|[H|[]]]; discriminate.
Qed.

Section Text.
(* fmt.Errorf(format, args...) for the arguments of the call, as a function of the format: text
   before the first '%' is copied unchanged *)
Variable fmt2 : bstr -> bstr.
Hypothesis fmt2_literal : forall lit rest, ~ In 37 lit -> fmt2 (lit ++ rest) = lit ++ fmt2 rest.

Theorem error_text_shows_position name line col body :
  ~ In 37 name ->
  let e := error_at fmt2 name line col body in
  pe_file e = name /\ pe_line e = line /\ pe_col e = col /\
  pe_text e = Some (prefix_text (pe_file e) (pe_line e) (pe_col e) ++ fmt2 body) /\
  (forall text, pe_text e = Some text -> mentions text (pe_file e) (pe_line e) (pe_col e)).
Proof.
  intros Hn e. unfold e, error_at. cbn [pe_file pe_line pe_col pe_text].
  rewrite error_format_is. cbn [option_map]. rewrite (fmt2_literal _ _ (prefix_text_no_percent name line col Hn)).
  repeat split. intros text E. inversion E; subst; clear E.
  exists template_lit, ([58; 32] ++ fmt2 body). unfold prefix_text, template_lit. cbn [app]. repeat (rewrite <- app_assoc; cbn [app]). reflexivity.
Qed.
End Text.
