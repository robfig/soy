(* C14, token grammar: the whole generated file of an accepted Soy file is a
   program of Spec/JsSyntax.v; its function definitions are the file's
   templates, in order, under their qualified names; and it is bracket
   balanced. *)
From Soy Require Import Model.Bytes Model.Num Model.Values Model.Outcome Model.Ast Model.JsGen Generated.Tables
  Spec.JsOut Spec.JsSyntax Spec.JsShape Proofs.JsGenProofs Proofs.JsGenInv Proofs.JsGenLit
  Proofs.BytesBase Proofs.JsWfSplitBase Proofs.JsWfSplitNum Proofs.JsWfSplit Proofs.JsWfTail Proofs.JsWfLeaf
  Proofs.JsWfBase Proofs.JsWfBalance Proofs.JsWfFrame Proofs.JsWfMonad Proofs.JsWfExpr Proofs.JsWfStmt.
From Coq Require Import ZifyBool Lia.
Open Scope N_scope.
#[local] Arguments assoc_s {A} k l : simpl never.

(* [echain] of Proofs/JsWfExpr.v with [ssingle] for [esingle] *)
Ltac schain :=
  lazymatch goal with
  | |- emits _ [] _ _ _ _ _ => apply emits_nil
  | |- emits _ (_ :: _) _ _ _ _ _ => eapply emits_cons0; [ ssingle | schain ]
  | |- emits _ (_ ++ _) _ _ _ _ _ => eapply emits_app0; [ first [ eassumption | esub ] | schain ]
  | |- _ => first [ eassumption | esub ]
  end.

Lemma lex_chunk_name s : lex_chunk LNormal (CName s) = option_map (fun ts => (ts, LNormal)) (lex_name s).
Proof. reflexivity. Qed.

Section File.
Variable o : jopts.
Notation fmt := (o_fmt o).
Notation md := (is_module (o_fmt o)).

(* the statement  NAME  at the start of a statement: the recogniser collects the parts *)
Lemma name_parts_run l : forall acc s, l <> [] ->
  js_run md (name_tokens l) (MNameDot acc) s = Some (MName (rev l ++ acc), s, []).
Proof.
  induction l as [|p l IH]; intros acc s Hne; [congruence|]. destruct l as [|q r].
  - cbn [name_tokens rev app]. destruct (tok_of_ident_cases p) as [(k & ->)| ->]; reflexivity.
  - change (name_tokens (p :: q :: r)) with (tok_of_ident p :: TP PDot :: name_tokens (q :: r)).
    specialize (IH (p :: acc) s ltac:(discriminate)).
    replace (rev (p :: q :: r) ++ acc) with (rev (q :: r) ++ p :: acc) by (cbn [rev]; rewrite <- !app_assoc; reflexivity).
    destruct (tok_of_ident_cases p) as [(k & ->)| ->]; cbn [js_run js_step cfg]; rewrite IH; reflexivity.
Qed.

Lemma dname_stmt_run nm e s : dname_okb nm = true ->
  exists ts, lex_name nm = Some ts /\ js_run md ts (MStmt e) s = Some (MName (rev (split_dots [] nm)), s, []).
Proof.
  unfold dname_okb. intro H. destruct (lex_name nm) as [ts|] eqn:El; [|discriminate]. destruct ts as [|t ts]; [discriminate|]. destruct t; try discriminate.
  exists (TId s0 :: ts). split; [reflexivity|].
  unfold lex_name in El. destruct (forallb ident_ok (split_dots [] nm)); [|discriminate]. inversion El as [E2]. clear El.
  destruct (split_dots [] nm) as [|p [|q r]]; [discriminate E2| |].
  - cbn [name_tokens] in E2. injection E2 as E3 E4. subst ts. assert (s0 = p) by (destruct (tok_of_ident_cases p) as [(k & Ek)|Ek]; rewrite Ek in E3; congruence). subst. cbn [name_tokens]. rewrite E3. reflexivity.
  - change (name_tokens (p :: q :: r)) with (tok_of_ident p :: TP PDot :: name_tokens (q :: r)) in *. injection E2 as E3 E4. subst ts.
    assert (s0 = p) by (destruct (tok_of_ident_cases p) as [(k & Ek)|Ek]; rewrite Ek in E3; congruence). subst.
    rewrite E3. cbn [js_run js_step step_stmt cfg]. rewrite (name_parts_run (q :: r) [p] s ltac:(discriminate)).
    cbn [rev]. rewrite <- !app_assoc. reflexivity.
Qed.

Lemma name_okb_ok nm : name_okb nm = true -> name_ok nm.
Proof.
  unfold name_okb, name_ok. destruct (lex_name nm) as [ts|] eqn:El; [|discriminate]. destruct ts as [|t [|t2 l]]; [discriminate| |intro X; destruct t; discriminate X]. destruct t; try discriminate.
  intros _. unfold lex_name in El. destruct (forallb ident_ok (split_dots [] nm)) eqn:Ef; [|discriminate]. inversion El as [E2].
  pose proof (join_split nm []) as J. cbn [rev app] in J.
  destruct (split_dots [] nm) as [|p [|q r]]; [discriminate E2| |].
  - cbn [name_tokens] in E2. cbn [join_dots] in J. subst p. injection E2 as E3. f_equal. f_equal. f_equal. destruct (tok_of_ident_cases nm) as [(k & Ek)|Ek]; rewrite Ek in E3; congruence.
  - change (name_tokens (p :: q :: r)) with (tok_of_ident p :: TP PDot :: name_tokens (q :: r)) in E2. discriminate E2.
Qed.

Lemma emits_cons_d md c b m s m1 s1 m2 s2 d :
  emits md [c] m s m1 s1 [] -> emits md b m1 s1 m2 s2 d -> emits md (c :: b) m s m2 s2 d.
Proof. intros A B. exact (emits_cons md c b _ _ _ _ [] _ _ d A B). Qed.
Lemma emits_app_d1 md a b m s m1 s1 m2 s2 d :
  emits md a m s m1 s1 d -> emits md b m1 s1 m2 s2 [] -> emits md (a ++ b) m s m2 s2 d.
Proof. intros A B. pose proof (emits_app md a b _ _ _ _ d _ _ [] A B) as H. rewrite app_nil_r in H. exact H. Qed.
Lemma emits_app_d0 md a b m s m1 s1 m2 s2 d :
  emits md a m s m1 s1 [] -> emits md b m1 s1 m2 s2 d -> emits md (a ++ b) m s m2 s2 d.
Proof. intros A B. exact (emits_app md a b _ _ _ _ [] _ _ d A B). Qed.

(* between top-level nodes: no buffer variable yet *)
Definition invT (st : jstate) : Prop := scope_ok (j_scope st) /\ called_ok fmt st.
Lemma respects_invT : respects invT.
Proof. intros st st' E (H1 & H2). injection E as E1 E2 E3. unfold invT, called_ok. rewrite E1, E3. auto. Qed.
Lemma invS_invT b st : invS fmt b st -> invT st.
Proof. intros (H1 & _ & H3). split; assumption. Qed.
#[local] Hint Resolve respects_invT : jwf.

Notation topT ds := (fun (_ : unit) cs => forall e, exists e', emits md cs (MStmt e) [] (MStmt e') [] ds).
Definition top_post0 (m : J unit) (ds : list jsdecl) : Prop := tr invT m (topT ds) invT.

Lemma text_chunk t ts : text_toks t = Some ts -> lex_chunk LNormal (CText t) = Some (ts, LNormal).
Proof.
  unfold text_toks. cbn [lex_chunk]. destruct (lex_text 0 LNormal t) as [[ts' m']|]; [|discriminate]. destruct m'; try discriminate. congruence.
Qed.

Lemma header_run name e : tname_okb fmt name = true ->
  emits md (template_header_line o name) (MStmt e) [] (MStmt false) [KBlock BFun] [DFun (fmt_bytes (fmt_template_name fmt) name)].
Proof.
  unfold tname_okb, template_header_line. destruct (o_fmt o) eqn:Ef; intro H.
  - (* ES5: NAME = function(...) { *)
    cbn [fmt_template_text fmt_template_name is_module]. unfold js_es5_template_text, js_es5_template_name. cbn [fmt_chunks fmt_bytes app]. rewrite app_nil_r.
    destruct (dname_stmt_run name e [] H) as (ts & L & R). rewrite Ef in R. cbn [is_module] in R.
    eapply emits_cons_d; [eapply emits_toks1; [rewrite lex_chunk_name, L; reflexivity|exact R|reflexivity]|].
    match goal with |- emits _ (?c2 :: ?r) _ _ _ _ _ => change (c2 :: r) with ([c2] ++ r) end.
    eapply emits_app_d1.
    + eapply emits_toks1; [vm_compute; reflexivity| |].
      * cbn [js_run js_step step_stmt step_want step_have cfg m_params seq1]. rewrite rev_involutive, join_split. reflexivity.
      * reflexivity.
    + echain.
  - (* ES6: export function NAME(...) { *)
    cbn [fmt_template_text fmt_template_name is_module]. unfold js_es6_template_text, js_es6_template_name. cbn [fmt_chunks fmt_bytes app]. rewrite app_nil_r.
    pose proof (name_okb_ok _ H) as Hn.
    eapply emits_cons_d; [eapply emits_toks1; [vm_compute; reflexivity|reflexivity|reflexivity]|].
    match goal with |- emits _ (?c2 :: ?r) _ _ _ _ _ => change (c2 :: r) with ([c2] ++ r) end.
    eapply emits_app_d1.
    + eapply emits_toks1; [rewrite lex_chunk_name, (Hn : lex_name _ = _); reflexivity|reflexivity|reflexivity].
    + echain.
Qed.

Lemma output_buf_ok : buf_ok t_output.
Proof. split; reflexivity. Qed.

Lemma post_template w prev name body ae : tname_okb fmt name = true -> stmt_post0 o (w body) ->
  top_post0 (visit_template o w prev name body ae) [DFun (fmt_bytes (fmt_template_name fmt) name)].
Proof.
  intros Hn Hbody. pose proof (proj1 (stmt_post0_tr o _) Hbody _ output_buf_ok) as Hb.
  pose proof (t_push o t_output). pose proof (fun b => tr_weaken _ _ _ _ _ (t_pop o b) (invS_invT b)).
  assert (Hset : tr invT (jmod (set_buf t_output)) (fun _ cs => cs = []) (invS fmt t_output))
    by (apply tr_mod; [|reflexivity]; intros st (H1 & H2); repeat split; assumption).
  unfold top_post0, visit_template, template_head, template_rest. tgo;
    (intro e; match goal with H : stmtC _ _ |- _ => destruct (proj1 (stmtC_reach _ _) H false [KBlock BFun]) as (m9 & s9 & Q9 & (e9 & ->) & ->) end; exists false;
     pose proof (header_run name e Hn) as Qh; norm_app2;
     repeat (eapply emits_cons_d; [ssingle|]); eapply emits_app_d1; [exact Qh|]; norm_app2; schain).
Qed.

Lemma find_dot_none s : forall i, find_dot s i = None -> forallb (fun c => negb (c =? 46)) s = true.
Proof.
  induction s as [|c s IH]; intros i H; [reflexivity|]. cbn [find_dot] in H. cbn [forallb]. destruct (c =? 46); [discriminate|]. cbn. eapply IH; eauto.
Qed.

Lemma nodot_name_ok pre : has_dot pre = false -> dname_okb pre = true -> name_ok pre.
Proof.
  unfold has_dot. intros Hd Hn. destruct (find_dot pre 0) eqn:Ef; [discriminate|]. apply find_dot_none in Ef.
  unfold dname_okb in Hn. unfold name_ok. unfold lex_name in *. rewrite (split_dots_nodot pre [] Ef) in *. cbn [rev app forallb name_tokens] in *.
  destruct (ident_ok pre && true); [|discriminate]. destruct (tok_of_ident_cases pre) as [(k & Ek)|Ek]; rewrite Ek in *; [discriminate|reflexivity].
Qed.

Lemma nsdecl_run pre rest e s m' s' : dname_okb pre = true -> emits md rest (MStmt true) s m' s' [] ->
  emits md (CText t_ns1 :: CName pre :: CText t_ns2 :: (if has_dot pre then [] else [CText t_var]) ++ CName pre :: CText t_ns3 :: rest) (MStmt e) s m' s' [].
Proof.
  intros Hn Hr. eapply emits_cons0; [esingle|]. eapply emits_cons0; [apply dname_run; exact Hn|]. eapply emits_cons0; [esingle|].
  destruct (has_dot pre) eqn:Hd; cbn [app].
  - destruct (dname_stmt_run pre false (KBlock BIf :: s) Hn) as (ts & L & R).
    eapply emits_cons0; [eapply emits_toks1; [rewrite lex_chunk_name, L; reflexivity|exact R|tail_solve]|]. eapply emits_cons0; [esingle|exact Hr].
  - pose proof (nodot_name_ok pre Hd Hn) as Hnm. eapply emits_cons0; [esingle|]. eapply emits_cons0; [esingle|]. eapply emits_cons0; [esingle|exact Hr].
Qed.

Lemma ns_post name fuel : forall i, forallb (nsdecl_okb) (ns_prefixes fuel name i) = true ->
  tr invT (ns_decls fuel name i) (fun _ cs => forall e s, exists e', emits md cs (MStmt e) s (MStmt e') s []) invT.
Proof.
  induction fuel as [|f IH]; intros i Hall; cbn [ns_decls ns_prefixes] in *; [tgo|].
  destruct (Nat.ltb i (List.length name)).
  - cbn [forallb] in Hall. apply andb_prop in Hall. destruct Hall as [Hp Hl]. cbv zeta. specialize (IH _ Hl).
    tgo. intros e s. match goal with R : forall e s, exists e', _ |- _ => destruct (R true s) as (e' & Q2) end. exists e'. norm_app2. eapply emits_cons0; [ssingle|].
    apply nsdecl_run; [exact Hp|]. eapply emits_cons0; [esingle|exact Q2].
  - tgo. intros e s. exists e. apply emits_nil.
Qed.

Definition fname (name : bstr) : bstr := fmt_bytes (fmt_template_name fmt) name.
Definition decls_of (n : node) : list jsdecl := match n with NTemplate _ name _ _ _ => [DFun (fname name)] | _ => [] end.

Lemma top_walk fk n g : top_chk fmt fk n = true -> top_post0 (jwalk o g n) (decls_of n).
Proof.
  intros Hc. destruct g as [|g]; [intros st x st' _ H; discriminate H|].
  change (jwalk o (S g)) with (jwalk_body o (jwalk o g)). unfold top_post0, jwalk_body. tstep. tstep.
  destruct n; try discriminate Hc; cbn [jwalk_node top_chk decls_of] in *.
  - apply andb_prop in Hc. destruct Hc as [Hn Hb].
    eapply tr_post; [exact (post_template (jwalk o g) _ name _ _ Hn (stmt_walk o fk _ Hb g))|]. intros [] c H. exact H.
  - pose proof (ns_post name (S (List.length name)) 0%nat Hc). tgo. intro e. match goal with R : forall e s, exists e', _ |- _ => apply R end.
  - tgo. intro e. exists e. apply emits_nil.
Qed.

Lemma file_walk fk g body : forallb (top_chk fmt fk) body = true ->
  tr invT (jwalk_list (jwalk o g) body) (topT (flat_map decls_of body)) invT.
Proof.
  induction body as [|x body IH]; intro Hall; cbn [jwalk_list].
  - tgo. intro e. exists e. apply emits_nil.
  - cbn [forallb] in Hall. apply andb_prop in Hall. destruct Hall as [Hx Hl]. specialize (IH Hl). pose proof (top_walk fk x g Hx) as Hw.
    tgo. intro e.
    match goal with R1 : forall e, exists e', emits _ ?c1 _ _ _ _ _, R2 : forall e, exists e', emits _ ?c2 _ _ _ _ _ |- context [?c1 ++ ?c2] =>
      destruct (R1 e) as (e1 & Q1); destruct (R2 e1) as (e2 & Q2) end.
    exists e2. cbn [flat_map]. exact (emits_app _ _ _ _ _ _ _ _ _ _ _ Q1 Q2).
Qed.

Lemma prog_funs_decls body : prog_funs (flat_map decls_of body) = map fname (template_names body).
Proof.
  induction body as [|x body IH]; [reflexivity|]. cbn [flat_map]. unfold prog_funs in *. rewrite flat_map_app, IH.
  destruct x; cbn [decls_of flat_map app template_names map]; reflexivity.
Qed.

Lemma has_lt_eq s : has_lt' s = has_lt s.
Proof.
  induction s as [|c r IH]; [reflexivity|]. cbn [has_lt' has_lt]. rewrite IH. f_equal; unfold lt_at', lt_at, ls_at; destruct r as [|c1 [|c2 r2]]; rewrite ?orb_false_r; reflexivity.
Qed.

(* a comment body without a line terminator, continued by '.', is skipped *)
Lemma comment_safe s X : has_lt' s = false -> lex_text 0 LComment (s ++ 46 :: X) = lex_text 0 LComment (46 :: X).
Proof.
  induction s as [|c r IH]; intro H; [reflexivity|]. cbn [has_lt'] in H. apply orb_false_elim in H. destruct H as [H1 H2].
  cbn [lt_at'] in H1. apply orb_false_elim in H1. destruct H1 as [H1 H3]. cbn [app lex_text]. rewrite H1.
  assert (E : ls_at c (r ++ 46 :: X) = false).
  { destruct r as [|c1 [|c2 r2]]; [| |exact H3]; cbn [app]; unfold ls_at.
    - destruct X; [reflexivity|]. rewrite andb_false_r. reflexivity.
    - rewrite andb_false_r. reflexivity. }
  rewrite E. apply IH. exact H2.
Qed.
Lemma comment_plain s X : forallb (fun c => negb ((c =? 10) || (c =? 13)) && negb (c =? 226)) s = true ->
  lex_text 0 LComment (s ++ X) = lex_text 0 LComment X.
Proof.
  induction s as [|c r IH]; intro H; [reflexivity|]. cbn [forallb] in H. apply andb_prop in H. destruct H as [H1 H2].
  apply andb_prop in H1. destruct H1 as [Ha Hb]. apply negb_true_iff in Ha. apply negb_true_iff in Hb. cbn [app lex_text]. rewrite Ha.
  assert (E : ls_at c (r ++ X) = false) by (unfold ls_at; destruct (r ++ X) as [|c1 [|c2 l]]; try reflexivity; rewrite Hb; reflexivity).
  rewrite E. apply IH. exact H2.
Qed.
Lemma stmt_no_incr rest : cont_ok md (MStmt false) rest -> incr_next rest = false.
Proof.
  intros (ts_r & m_r & L & A). destruct (incr_next rest) eqn:Ei; [exfalso|reflexivity].
  destruct (incr_first _ _ _ Ei L) as (tl & [-> | ->]); destruct A as (s & r & St); cbn in St; discriminate.
Qed.

Lemma header_line name n : emits md (CText (indent_text n) :: [CText t_hdr1; CFile (line_comment_safe name); CText t_dot] ++ [CText t_nl]) (MStmt false) [] (MStmt false) [] [].
Proof.
  exists []. split; [|split; [reflexivity|]].
  - cbn [app lex_chunks_from lex_chunk]. rewrite lex_indent. cbn [option_map].
    replace (lex_text 0 LNormal t_hdr1) with (Some (@nil jstoken, LComment)) by (vm_compute; reflexivity).
    rewrite has_lt_eq, line_comment_safe_no_lt. cbn [option_map app].
    replace (lex_text 0 LComment t_dot) with (Some (@nil jstoken, LComment)) by (vm_compute; reflexivity).
    replace (lex_text 0 LComment t_nl) with (Some (@nil jstoken, LNormal)) by (vm_compute; reflexivity). reflexivity.
  - intros ip rest C. cbn [app render_chunks render_chunk]. rewrite <- !app_assoc. rewrite lex_indent_app.
    unfold t_dot, t_nl. cbn [app].
    match goal with |- context [lex_text 0 LNormal (t_hdr1 ++ ?X)] => change (lex_text 0 LNormal (t_hdr1 ++ X)) with (lex_text 0 LComment (drop 2 t_hdr1 ++ X)) end.
    rewrite comment_plain by (vm_compute; reflexivity).
    rewrite comment_safe by (rewrite has_lt_eq; apply line_comment_safe_no_lt).
    assert (E1 : lex_text 0 LComment (46 :: 10 :: rest) = if incr_next rest then cons_tok tok_incr_nl (lex_text (incr_skip rest) LNormal rest) else lex_text 0 LNormal rest).
    { cbn [lex_text]. change ((46 =? 10) || (46 =? 13)) with false. change ((10 =? 10) || (10 =? 13)) with true.
      replace (ls_at 46 (10 :: rest)) with false by (destruct rest; reflexivity). reflexivity. }
    rewrite E1. rewrite (stmt_no_incr rest C). rewrite prepend_nil. reflexivity.
Qed.

Lemma render_nostr ip ip' cs : forallb (fun c => match c with CStrLit _ _ => false | _ => true end) cs = true ->
  render_chunks ip cs = render_chunks ip' cs.
Proof.
  induction cs as [|c cs IH]; [reflexivity|]. cbn [forallb render_chunks]. intro H. apply andb_prop in H. destruct H as [H1 H2].
  rewrite (IH H2). destruct c; try reflexivity. discriminate H1.
Qed.
Lemma imp_run imp : imp_ok fmt imp = true -> exists d, emits md imp (MStmt false) [] (MStmt false) [] d /\ prog_funs d = [].
Proof.
  unfold imp_ok. destruct imp as [|c imp]; [intros _; exists []; split; [apply emits_nil|reflexivity]|].
  destruct (lex_chunks_from LNormal (c :: imp)) as [[ts m]|] eqn:El; [|discriminate]. destruct m; try discriminate.
  destruct (js_run md ts (MStmt false) []) as [[[m1 s1] d1]|] eqn:Er; [|discriminate].
  destruct m1; try discriminate. destruct els; try discriminate. destruct s1; try discriminate. destruct d1 as [|[] [|]]; try discriminate.
  intro Hb. apply andb_prop in Hb. destruct Hb as [Hb Hlast]. apply andb_prop in Hb. destruct Hb as [Hns Hb].
  destruct (lex_text 0 LNormal (render_chunks (fun _ => true) (c :: imp))) as [[ts' m']|] eqn:Lb; [|discriminate Hb]. destruct m'; try discriminate Hb.
  apply toks_eqb_eq in Hb. subst ts'.
  eexists. split; [exists ts; split; [exact El|split; [exact Er|]]|reflexivity].
  intros ip rest C. rewrite (render_nostr ip (fun _ => true) _ Hns). eapply text_leaf; [exact Lb| |exact C].
  unfold tail_ok. destruct (render_chunks (fun _ : N => true) (c :: imp)) as [|b0 bs0] eqn:Er0; [exact I|].
  cbv zeta in Hlast. apply orb_prop in Hlast. destruct Hlast as [E|E]; apply N.eqb_eq in E; rewrite E; destruct (lastint ts); reflexivity.
Qed.

Lemma import_lines_run called keys : Forall (fun kv : bstr * list chunk => imp_ok fmt (snd kv) = true) called ->
  exists d, emits md (import_lines keys called) (MStmt false) [] (MStmt false) [] d /\ prog_funs d = [].
Proof.
  intro Hc. induction keys as [|k keys IH]; cbn [import_lines]; [exists []; split; [apply emits_nil|reflexivity]|].
  destruct IH as (d2 & R2 & P2).
  assert (H1 : exists d1, emits md (match assoc_s k called with Some imp => imp | None => [] end) (MStmt false) [] (MStmt false) [] d1 /\ prog_funs d1 = []).
  { destruct (assoc_s k called) as [imp|] eqn:Ea; [|exists []; split; [apply emits_nil|reflexivity]].
    apply imp_run. apply assoc_s_In in Ea. rewrite Forall_forall in Hc. exact (Hc _ Ea). }
  destruct H1 as (d1 & R1 & P1). exists (d1 ++ [] ++ d2). split.
  - eapply emits_app; [exact R1|]. eapply emits_app; [|exact R2]. esingle.
  - unfold prog_funs in *. rewrite !flat_map_app, P1, P2. reflexivity.
Qed.

Lemma t_visit_file fuel fk name body : file_chk fmt fk body = true ->
  tr invT (visit_file o fuel name body) (fun _ cw => exists e', emits md cw (MStmt false) [] (MStmt e') [] (flat_map decls_of body)) invT.
Proof.
  intro Hc. pose proof (file_walk fk fuel body Hc). unfold visit_file. tgo.
  match goal with R : forall e, exists e', _ |- _ => destruct (R false) as (e4 & Q4) end. exists e4. eapply emits_app_d0; [apply header_line|].
  norm_app2. eapply emits_cons_d; [ssingle|].
  match goal with |- emits _ (?a :: ?b :: ?r) _ _ _ _ _ => change (a :: b :: r) with ([a; b] ++ r) end.
  eapply emits_app_d0.
  { eapply emits_block; [intro ip; cbn [render_chunks render_chunk]; reflexivity|vm_compute; reflexivity|vm_compute; reflexivity|reflexivity|reflexivity]. }
  eapply emits_cons_d; [ssingle|]. eapply emits_cons_d; [ssingle|exact Q4].
Qed.

Theorem gen_file_parses fuel fk name body cs : file_chk fmt fk body = true -> gen_file o fuel name body = Ok cs ->
  exists ts prog, lex_chunks cs = Some ts /\ js_parse md ts = Some prog
    /\ prog_funs prog = map fname (template_names body) /\ bracket_balanced ts = true
    /\ forall is_print, lex_bytes (render_chunks is_print cs) = Some ts.
Proof.
  intros Hc H. unfold gen_file in H. destruct (visit_file o fuel name body jinit_state) as [[[] st]| | | | |] eqn:Ev; try discriminate. inversion H; subst cs. clear H.
  destruct (t_visit_file fuel fk name body Hc jinit_state tt st ltac:(split; repeat constructor; intros; discriminate) Ev) as (cw & E & (e' & Qw) & _ & K4).
  unfold ext in E. cbn [j_out jinit_state] in E. rewrite E, app_nil_r, rev_involutive.
  set (imports := match j_called st with [] => [] | _ :: _ => _ end).
  assert (Eimp : exists d, emits md imports (MStmt false) [] (MStmt false) [] d /\ prog_funs d = []).
  { subst imports. unfold called_ok in K4. destruct (j_called st) as [|kv called]; [exists []; split; [apply emits_nil|reflexivity]|]. cbv zeta.
    edestruct import_lines_run as (d & R & P); [exact K4|]. exists d. split; [|exact P]. eapply emits_app_d1; [exact R|esingle]. }
  destruct Eimp as (d1 & Qi & Pi).
  pose proof (emits_app md _ _ _ _ _ _ _ _ _ _ Qi Qw) as (ts & L & R & Bt).
  exists ts, (d1 ++ flat_map decls_of body). split; [unfold lex_chunks; rewrite L; reflexivity|].
  assert (Hp : js_parse md ts = Some (d1 ++ flat_map decls_of body)) by (unfold js_parse; rewrite R; reflexivity).
  split; [exact Hp|]. split; [|split; [eapply js_parse_balanced; exact Hp|]].
  - unfold prog_funs in *. rewrite flat_map_app, Pi. cbn [app]. apply prog_funs_decls.
  - intro ip. assert (C0 : cont_ok md (MStmt e') []) by (exists [], LNormal; split; [reflexivity|exact I]).
    pose proof (Bt ip [] C0) as Hb. rewrite app_nil_r in Hb. cbn in Hb. rewrite app_nil_r in Hb. unfold lex_bytes.
    rewrite Hb. reflexivity.
Qed.
End File.
