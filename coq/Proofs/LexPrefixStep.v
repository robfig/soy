(* Prefix determinism of the scanner, part 4: the state functions (lexHeaderParam: LexPrefixHeader.v). *)
From Soy Require Import Model.Bytes Model.Utf8 Model.Outcome Model.Token Model.Lexer Generated.Tables
  Proofs.LexPrefix Proofs.LexPrefixStates Proofs.LexPrefixHeader.
From Coq Require Import ZifyBool Lia List.
Import ListNotations.
Open Scope Z_scope.
Set Default Proof Using "Type".

Section Det.
Variable ul ud : Z -> bool.
Variable pre r1 r2 : bstr.
Variable base : Z.
Notation inp1 := (pre ++ r1).
Notation inp2 := (pre ++ r2).
Notation n1 := (Z.of_nat (length (pre ++ r1))).
Notation n2 := (Z.of_nat (length (pre ++ r2))).
Notation h := (Z.of_nat (length pre)).
Notation live := (live h).

Lemma lex_text_tracks l :
  tracks (fun _ => True) (fun res => l_pos (snd res) + m_text <= h) True (lex_text inp1 n1 base l) (lex_text inp2 n2 base l).
Proof. unfold lex_text. last lex_text_loop_tracks as a Fa. fin. Qed.
Lemma lex_line_comment_tracks l :
  tracks (fun _ => True) (fun res => l_pos (snd res) + m_linec <= h) True (lex_line_comment inp1 n1 base l) (lex_line_comment inp2 n2 base l).
Proof. unfold lex_line_comment. last line_comment_loop_tracks as a Fa. fin. Qed.
Lemma lex_block_comment_tracks l :
  tracks (fun _ => True) (fun res => l_pos (snd res) + m_blockc <= h) True (lex_block_comment inp1 n1 base l) (lex_block_comment inp2 n2 base l).
Proof. unfold lex_block_comment. last block_comment_loop_tracks as a Fa. fin. Qed.
Lemma lex_string_tracks q l :
  tracks (fun _ => True) (fun res => l_pos (snd res) + m_string <= h) True (lex_string inp1 n1 base q l) (lex_string inp2 n2 base q l).
Proof. unfold lex_string. last string_loop_tracks as a Fa. fin. Qed.

Lemma lex_left_delim_tracks l :
  tracks (fun _ => True) (fun res => l_pos (snd res) + m_ldelim <= h) True (lex_left_delim inp1 n1 base l) (lex_left_delim inp2 n2 base l).
Proof.
  pose proof (h_le1 pre r1). unfold lex_left_delim.
  step next_tracks as [r0 l1] F1. step next_tracks as [r l2] F2. step emit_tracks as l4 F4.
  apply tr_ret; [exact I|]. destruct (r =? 123); fin.
Qed.
Lemma lex_right_delim_tracks l :
  tracks (fun _ => True) (fun res => l_pos (snd res) + m_rdelim <= h) True (lex_right_delim inp1 n1 base l) (lex_right_delim inp2 n2 base l).
Proof.
  pose proof (h_le1 pre r1). unfold lex_right_delim. step double_close_tracks as [e|l1] Fc; [ret|].
  step emit_tracks as l2 F2. ret.
Qed.
Lemma lex_right_delim_end_tracks l :
  tracks (fun _ => True) (fun res => l_pos (snd res) + m_rdelim_end <= h) True
    (lex_right_delim_end inp1 n1 base l) (lex_right_delim_end inp2 n2 base l).
Proof.
  pose proof (h_le1 pre r1). unfold lex_right_delim_end. step next_tracks as [r l0] F0.
  step double_close_tracks as [e|l1] Fc; [ret|]. step emit_tracks as l2 F2. ret.
Qed.
Lemma lex_begin_tag_tracks l :
  tracks (fun _ => True) (fun res => l_pos (snd res) + m_begin_tag <= h) True (lex_begin_tag inp1 n1 l) (lex_begin_tag inp2 n2 l).
Proof. unfold lex_begin_tag. step peek_tracks as [r l1] F1. branch; ret. Qed.

Lemma lex_negative_tracks l :
  tracks (fun res => Z.min (l_pos l) n1 <= l_pos (snd res) + 4) (fun res => l_pos (snd res) + m_inside <= h) True
    (lex_negative inp1 n1 base l) (lex_negative inp2 n2 base l).
Proof.
  pose proof (h_le1 pre r1). unfold lex_negative. branch; [|step emit_tracks as l1 F1; ret].
  step peek_tracks as [p1 l1] F1. step peek_when_tracks as [num l2] F2.
  branch; [|step emit_tracks as l3 F3]; ret.
Qed.

Lemma lex_inside_tag_tracks l :
  tracks (fun _ => True) (fun res => l_pos (snd res) + m_inside <= h) True (lex_inside_tag inp1 n1 base l) (lex_inside_tag inp2 n2 base l).
Proof.
  pose proof (h_le1 pre r1). unfold lex_inside_tag, emit_to.
  step next_tracks as [r l1] F1. branch; [ret|].
  step peek_when_tracks as [c1 l2] F2. branch; [ret|].
  branch; [ret|].
  branch; [step emit_tracks as l3 F3; ret|].
  branch; [step emit_tracks as l3 F3; ret|].
  branch.
  { step next_tracks as [c2 l3] F3. branch; [ret|].
    branch; [step emit_tracks as l4 F4; ret|].
    branch; step emit_tracks as l4 F4; ret. }
  branch; [last lex_negative_tracks as a Fa; fin|].
  branch; [ret|].
  branch; [ret|].
  branch; [step emit_tracks as l3 F3; ret|].
  (* a comparison symbol, its second character accepted if there *)
  pose (cmp := fun inp n l3 =>
    '(_, l4) <- accept inp n inside_tag_cmp_accept l3 ;; sym <- slice inp n (l_start l4) (l_pos l4) ;;
    match assoc_s sym arith_items with
    | None => errorf base e_symbol l4
    | Some t => l5 <- emit inp n base t l4 ;; Ok (LInsideTag, l5)
    end).
  assert (K : forall l3, l_pos l3 = l_pos l1 -> 0 <= l_width l3 <= 4 ->
    tracks (fun _ => True) (fun res => l_pos (snd res) + m_inside <= h) (l_pos l1 + 4 <= h) (cmp inp1 n1 l3) (cmp inp2 n2 l3)).
  { intros l3 Hp Hw. unfold cmp. step accept_tracks as [b l4] F4. step slice_tracks as sym Fs.
    destruct (assoc_s sym arith_items); [step emit_tracks as l5 F5; ret|last errorf_tracks as e Fe; fin]. }
  branch; [from K|].
  step peek_when_tracks as [c2 l3] F3. branch; [from K|].
  branch; [ret|].
  branch; [step emit_tracks as l4 F4; ret|].
  branch; [last errorf_tracks as e Fe; fin|].
  branch; [step emit_tracks as l4 F4; ret|].
  branch; [ret|].
  branch; [step emit_tracks as l4 F4; ret|].
  branch; [ret|].
  last errorf_tracks as e Fe; fin.
Qed.

Lemma lex_css_tracks l : tracks (fun _ => True) (live m_css) True (lex_css inp1 n1 base l) (lex_css inp2 n2 base l).
Proof.
  pose proof (h_le1 pre r1). unfold lex_css, emit_to. step next_tracks as [r l1] F1.
  step css_loop_tracks as [e|l3] F3; [apply tr_dead, F3|].
  step emit_tracks as l4 F4. step next_tracks as [c l5] F5.
  step double_close_tracks as [e|l6] F6; [apply tr_dead, F6|].
  step emit_tracks as l7 F7. ret.
Qed.

Lemma lex_literal_tracks l : tracks (fun _ => True) (live m_literal) True (lex_literal inp1 n1 base l) (lex_literal inp2 n2 base l).
Proof.
  pose proof (h_le1 pre r1). pose proof kw_lens. unfold lex_literal. step next_tracks as [c0 l0] F0.
  step (literal_space_loop_tracks pre r1 r2 _ c0 l0 (S (loop_fuel n2 l0)) ltac:(pose proof (loop_fuel_enough pre r2 l0); pos_lia)) as [ch l1] F1.
  branch; [apply errorf_live|].
  step double_close_tracks as [e|l2] F2; [apply tr_dead, F2|].
  step emit_tracks as l3 F3. cbv zeta.
  destruct (l_dd l3); (apply tr_index_of; [|intros e E; split; [exact I|intros [_ Hl]; apply errorf_facts in E; destruct (Hl (proj2 E))]]);
    intros i Hi; step emit_tracks as l5 F5; step emit_tracks as l6 F6; step emit_tracks as l7 F7; step emit_tracks as l8 F8; ret.
Qed.

Lemma scan_hex_tracks l :
  tracks (fun r => l_pos l <= l_pos (sum_lx r) /\ l_start (sum_lx r) = l_start l) (fun r => l_pos (sum_lx r) + m_number <= h) True
    (scan_hex inp1 n1 l) (scan_hex inp2 n2 l).
Proof.
  pose proof kw_lens. unfold scan_hex. step accept_run_tracks as [some l3] F3. branch; [ret|].
  step accept_tracks as [dot l4] F4. branch; ret.
Qed.
Lemma scan_mantissa_tracks s l : l_start l <= l_pos l ->
  tracks (fun r => lmono l (sum_lx r)) (fun r => l_pos (sum_lx r) + m_number <= h) True (scan_mantissa inp1 n1 s l) (scan_mantissa inp2 n2 s l).
Proof.
  intros Hs. unfold scan_mantissa. step accept_run_tracks as [some l2] F2. branch; [ret|].
  step accept_tracks as [dot l3] F3. branch.
  - step accept_run_tracks as [frac l4] F4. branch; ret.
  - branch; [step byte_at_tracks as c0 F0|]; (branch; [step byte_at_tracks as c1 Fc|]); branch; ret.
Qed.
Lemma scan_exponent_tracks t l :
  tracks (fun r => lmono l (sum_lx r)) (fun r => l_pos (sum_lx r) + m_number <= h) True (scan_exponent inp1 n1 t l) (scan_exponent inp2 n2 t l).
Proof.
  unfold scan_exponent. step accept_tracks as [e l5] F5. branch; [|ret].
  step accept_tracks as [sg l6] F6. step accept_run_tracks as [ds l7] F7. branch; ret.
Qed.
(* `l.pos+2 <= len(l.input) && l.input[l.pos:l.pos+2] == "0x"` *)
Lemma hex_probe_tracks l :
  tracks (fun _ => True) (fun _ => l_pos l + 2 <= h) True
    (if l_pos l + 2 <=? n1 then p <- slice inp1 n1 (l_pos l) (l_pos l + 2) ;; Ok (bstr_eqb p num_hex_prefix) else Ok false)
    (if l_pos l + 2 <=? n2 then p <- slice inp2 n2 (l_pos l) (l_pos l + 2) ;; Ok (bstr_eqb p num_hex_prefix) else Ok false).
Proof.
  apply tr_agree. intros a _. split; [exact I|]. intros Hp. pose proof (h_le1 pre r1). pose proof (h_le2 pre r2).
  destruct (l_pos l + 2 <=? n1) eqn:E1; [|pos_lia]. destruct (l_pos l + 2 <=? n2) eqn:E2; [|pos_lia].
  rewrite (slice_agree pre r1 r2) by exact Hp. reflexivity.
Qed.

Lemma lex_soydoc_param_tracks l : l_pos l + soydoc_kw_len <= n1 ->
  tracks (fun r => l_pos l <= l_pos r) (fun r => l_pos r + m_sdparam <= h) True (lex_soydoc_param inp1 n1 base l) (lex_soydoc_param inp2 n2 base l).
Proof.
  intros Hn. pose proof (h_le1 pre r1). pose proof kw_lens. unfold lex_soydoc_param. step next_tracks as [ch l1] F1.
  pose (name := fun inp n l3 =>
    l4 <- soydoc_space_loop inp n (loop_fuel n l3) l3 ;; let l5 := ignore (backup l4) in soydoc_ident_loop inp n base (loop_fuel n l5) l5).
  assert (K : forall l3, l_pos l + soydoc_kw_len <= l_pos l3 ->
    tracks (fun r => l_pos l <= l_pos r) (fun r => l_pos r + m_sdparam <= h) (l_pos l3 + 4 <= h) (name inp1 n1 l3) (name inp2 n2 l3)).
  { intros l3 H3. unfold name. step soydoc_space_loop_tracks as l4 F4. last soydoc_ident_loop_tracks as r Fr. fin. }
  branch; [step next_tracks as [c2 l2] F2; branch; [ret|]|branch; [|ret]]; (step emit_tracks as l3 F3; from K).
Qed.

(* the measure of lexSoyDoc's loop: at the start of a line it steps back over the byte it has just read, once *)
Lemma soydoc_loop_tracks f1 : forall (star sol : bool) l f2, (2 * Z.to_nat (h - l_pos l) + (if sol then 1 else 0) < f2)%nat ->
  tracks (pmono n1 l) (fun r => l_pos (snd r) + m_soydoc <= h) True
    (soydoc_loop inp1 n1 base f1 star sol l) (soydoc_loop inp2 n2 base f2 star sol l).
Proof.
  pose proof (h_le1 pre r1). pose proof kw_lens.
  induction f1 as [|f1 IH]; intros star sol l [|f2] Hf; cbn [soydoc_loop]; [apply tr_diverge..|pos_lia|]. cbv zeta.
  step next_tracks as [ch l1] F1. branch eqn:Ceof; [last errorf_tracks as e Fe; fin|].
  branch; [step met_tracks as l2 F2; step emit_tracks as l3 F3; ret|].
  (* the rest of the iteration, from a cursor not behind l; a cursor still at l was at the start of the line, ch does
     not end the line, and the next iteration is no longer at the start of a line *)
  pose (rest := fun inp n f l2 sol2 =>
    r <- (if gen_isEndOfLine ch then l3 <- maybe_emit_text inp n base l2 1 ;; Ok (l3, true) else Ok (l2, sol2)) ;;
    soydoc_loop inp n base f (ch =? 42) (snd r) (fst r)).
  assert (K : forall l2 sol2, l_pos l <= l_pos l2 ->
    (l_pos l < n1 -> l_pos l < l_pos l2 \/ sol = true /\ sol2 = false /\ gen_isEndOfLine ch = false) ->
    tracks (pmono n1 l) (fun r => l_pos (snd r) + m_soydoc <= h) (l_pos l2 + m_sdparam <= h) (rest inp1 n1 f1 l2 sol2) (rest inp2 n2 f2 l2 sol2)).
  { intros l2 sol2 Hl2 Hm. unfold rest. branch.
    - step met_tracks as l3 F3. apply (tr_loop (IH (ch =? 42) true l3)); [intros Hq; destruct sol; fuel|intros a Fa; fin].
    - apply (tr_loop (IH (ch =? 42) sol2 l2)); [intros Hq; destruct sol, sol2; fuel|intros a Fa; fin]. }
  branch; [|from K].
  branch eqn:Csp; [again (IH star true l1)|].
  assert (Heol : gen_isEndOfLine ch = false).
  { destruct (gen_isEndOfLine ch) eqn:C; [rewrite (isEndOfLine_EOL ch C) in Csp; discriminate|reflexivity]. }
  branch; [again (IH true true l1)|].
  apply (tr_has_prefix pre r1 r2 _ _ _ soydoc_param_kw _
           (fun bb => l3 <- (if bb then lex_soydoc_param inp1 n1 base _ else Ok _) ;; rest inp1 n1 f1 l3 false)
           (fun bb => l3 <- (if bb then lex_soydoc_param inp2 n2 base _ else Ok _) ;; rest inp2 n2 f2 l3 false)).
  intros [|] Hkw; cbn [bind]; [specialize (Hkw eq_refl); step lex_soydoc_param_tracks as l3 F3|]; from K.
Qed.

Lemma lex_soydoc_tracks l :
  tracks (fun _ => True) (fun res => l_pos (snd res) + m_soydoc <= h) True (lex_soydoc inp1 n1 base l) (lex_soydoc inp2 n2 base l).
Proof.
  pose proof (h_le1 pre r1). pose proof (h_le2 pre r2). unfold lex_soydoc. step emit_tracks as l1 F1.
  assert (Hf : (2 * Z.to_nat (h - l_pos l1) + 1 < soydoc_fuel n2 l1)%nat) by (unfold soydoc_fuel; pos_lia).
  last (soydoc_loop_tracks _ false true l1 _ Hf) as a Fa. fin.
Qed.

Lemma lex_negative_det l res : lex_negative inp1 n1 base l = Ok res -> l_pos (snd res)+ m_inside <= h -> lex_negative inp2 n2 base l = Ok res.
Proof using All. exact (tracks_det _ _ _ _ _ (lex_negative_tracks l) res). Qed.

Lemma lex_ident_tracks l :
  tracks (fun _ => True) (live m_ident) True (lex_ident ul ud inp1 n1 base l) (lex_ident ul ud inp2 n2 base l).
Proof.
  pose proof (h_le1 pre r1). unfold lex_ident, emit_to. step next_tracks as [r l1] F1.
  (* the identifier proper, once its sigil is read *)
  pose (name := fun inp n ity l2 =>
    l3 <- alnum_loop ul ud inp n (loop_fuel n l2) l2 ;; let l4 := backup l3 in
    word <- slice inp n (l_start l4) (l_pos l4) ;;
    match assoc_s word builtin_idents with
    | Some t => l5 <- emit inp n base t l4 ;;
        if (t =? itemLiteral)%N then Ok (LLiteral, l5) else if (t =? itemCss)%N then Ok (LCss, l5) else Ok (LInsideTag, l5)
    | None => if (ity =? itemCommandEnd)%N || (ity =? itemSpecialChar)%N then errorf base e_ident (set_pos l4 (l_start l4))
              else l5 <- emit inp n base ity l4 ;; Ok (LInsideTag, l5)
    end).
  assert (K : forall ity l2, tracks (fun _ => True) (live m_ident) (l_pos l2 + 4 <= h) (name inp1 n1 ity l2) (name inp2 n2 ity l2)).
  { intros ity l2. unfold name. step alnum_loop_tracks as l3 F3. step slice_tracks as word Fw. destruct (assoc_s word builtin_idents) as [t|].
    - step emit_tracks as l5 F5. branch; [|branch]; ret.
    - branch; [apply errorf_live|]. step emit_tracks as l5 F5. ret. }
  branch; [step next_tracks as [d l2] F2; from K|].
  branch; [from K|].
  branch; [from K|].
  branch; [from K|].
  branch; [|from K].
  step next_tracks as [dot l2] F2. branch; [step errorf_tracks as e Fe; apply tr_dead, Fe|].
  step next_tracks as [d l3] F3. from K.
Qed.

Lemma scan_number_tracks l : l_start l <= l_pos l ->
  tracks (fun r => l_pos l <= l_pos (snd r) /\ l_start (snd r) = l_start l) (fun r => l_pos (snd r) + m_number <= h) True
    (scan_number ul ud inp1 n1 l) (scan_number ul ud inp2 n2 l).
Proof.
  intros Hs. unfold scan_number. step accept_tracks as [hasSign l1] F1. step hex_probe_tracks as hex Fh.
  (* "Next thing must not be alphanumeric." *)
  pose (term := fun inp n (t : N) l2 =>
    '(p, l3) <- peek inp n l2 ;; if is_alnum ul ud p then '(_, l4) <- next inp n l3 ;; Ok (t, false, l4) else Ok (t, true, l3)).
  assert (K : forall t l2, l_pos l1 <= l_pos l2 -> l_start l2 = l_start l1 ->
    tracks (fun r => l_pos l <= l_pos (snd r) /\ l_start (snd r) = l_start l) (fun r => l_pos (snd r) + m_number <= h) (l_pos l2 + m_number <= h)
      (term inp1 n1 t l2) (term inp2 n2 t l2)).
  { intros t l2 Hp Hst. unfold term. step peek_tracks as [p l3] F3. branch; [step next_tracks as [c l4] F4|]; ret. }
  branch.
  - branch; [ret|]. step scan_hex_tracks as [[t l2]|[t l2]] F2; [ret|from K].
  - step scan_mantissa_tracks as [[t l4]|[t l4]] F4; [ret|].
    step scan_exponent_tracks as [[t' l2]|[t' l2]] F2; [ret|from K].
Qed.

Lemma lex_number_tracks l : l_start l <= l_pos l ->
  tracks (fun _ => True) (live m_number) True (lex_number ul ud inp1 n1 base l) (lex_number ul ud inp2 n2 base l).
Proof.
  intros Hs. pose proof (h_le1 pre r1). unfold lex_number, emit_to. step (scan_number_tracks l Hs) as [[t ok] l1] F1. branch.
  - step slice_tracks as w Fw. apply errorf_live.
  - step emit_tracks as l2 F2. ret.
Qed.
End Det.
