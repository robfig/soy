(* C17 at command level, rules for {switch}: parseSwitch / parseCase of Model/Parser.v (the
   code after /repo 5b2986c and 751cace: {default} must be the last case).  The loop rules hold
   inside and outside a {msg} ({plural} runs the same loop with the closing item "/plural");
   the {switch} tag itself is refused inside a {msg}. *)
From Soy Require Import Model.Bytes Model.Outcome Model.Ast Model.Token Model.RawText Model.ExprParser Model.Parser Generated.Tables
  Spec.ExprSyntax Spec.CmdSyntax Proofs.ExprParserRules Proofs.CmdRoundtripBase Proofs.CmdRoundtripRules.
From Coq Require Import Lia.
Open Scope N_scope.

Section Switch.
Variable ns : bstr.
Variable al : list (bstr * bstr).
Variable inlen : N.
Variable lexq : bstr -> list tok.
Variable unq : bstr -> option bstr.
Variable efuel : list tok -> nat.

Notation PE g := (lift_expr inlen parse_expr g).
Notation IL g := (item_list inlen lexq unq parse_expr efuel g).
Notation BT g := (begin_tag inlen lexq unq parse_expr efuel (PE g) (IL g) g).
Notation Run := (Run ns al).
Notation Body := (Body ns al inlen lexq unq efuel).
Notation Tag := (Tag ns al inlen lexq unq efuel).

(* parseCase after "case" / "default": returns the case, backed up onto the item that ended its body *)
Definition CaseRun (m : bool) (token : tok) (values : list node) (ts : list tok) (n : node) (rest : list tok) : Prop :=
  Run m (fun p => feeds p rest) (fun g k s => case_loop inlen (PE g) (IL g) k token values s) ts n.

(* a case from the item that follows its last value: "," and more values, or "}" and the body *)
Lemma case_tail m token values1 c l1 n rest s p sc :
  (t_typ c = pit_Comma /\ CaseRun m token values1 l1 n rest) \/
  (t_typ c = pit_RightDelim /\ exists x u l2, Body m u_case l1 x u l2 /\ n = NSwitchCase (t_pos token) values1 x /\ rest = u :: l2) ->
  feeds p (c :: l1) -> base_ok ns al m s ->
  runs (fun p' => feeds p' rest)
    (fun g k => cbind (c_next (set_ps s p sc)) (fun tok s2 =>
       if tis tok pit_Comma then case_loop inlen (PE g) (IL g) k token values1 s2
       else if tis tok pit_RightDelim then
         cbind (IL g u_case s2) (fun body s3 => COk (NSwitchCase (t_pos token) values1 body) (c_backup s3))
       else c_unexp inlen tok x_case s2)) s n.
Proof.
  intros HC H0 Hm. run run_next as p2 [H2 _]. destruct HC as [[Hc HL]|[Hc (x & u & l2 & HB & -> & ->)]].
  - rewrite (tis_eq c _ Hc). apply HL; assumption.
  - rewrite (tis_ne c _ (typ_ne _ _ pit_Comma Hc eq_refl)), (tis_eq c _ Hc).
    run HB as p3 (_ & H3 & _). rewrite c_backup_set_ps. apply runs_ret, H3.
Qed.

Lemma Case_more m token values ts v c l1 n rest :
  t_typ token <> pit_Default -> Parses 0 ts v (c :: l1) -> t_typ c = pit_Comma ->
  CaseRun m token (values ++ [v]) l1 n rest -> CaseRun m token values ts n rest.
Proof.
  intros Hd HP Hc HL s p sc H0 Hm. apply runs_Slf. cbn [case_loop]. rewrite (tis_ne token _ Hd).
  run (run_expr HP) as p1 H1. cbn [cbind]. eapply case_tail; eauto.
Qed.

Lemma Case_last m token values ts v rd l1 x u l2 :
  t_typ token <> pit_Default -> Parses 0 ts v (rd :: l1) -> t_typ rd = pit_RightDelim ->
  Body m u_case l1 x u l2 ->
  CaseRun m token values ts (NSwitchCase (t_pos token) (values ++ [v]) x) (u :: l2).
Proof.
  intros Hd HP Hrd HB s p sc H0 Hm. apply runs_Slf. cbn [case_loop]. rewrite (tis_ne token _ Hd).
  run (run_expr HP) as p1 H1. cbn [cbind]. eapply case_tail; eauto 8.
Qed.

Lemma Case_default m token values rd l x u l2 :
  t_typ token = pit_Default -> t_typ rd = pit_RightDelim ->
  Body m u_case l x u l2 ->
  CaseRun m token values (rd :: l) (NSwitchCase (t_pos token) values x) (u :: l2).
Proof.
  intros Hd Hrd HB s p sc H0 Hm. apply runs_Slf. cbn [case_loop]. rewrite (tis_eq token _ Hd). cbn [cbind].
  eapply case_tail; eauto 8.
Qed.

Definition SwLoop (m : bool) (pos endt : N) (value : node) (cases : list node) (ts : list tok) (n : node) (rest : list tok) : Prop :=
  Run m (fun p => feeds p rest) (fun g k s => switch_loop inlen (PE g) (IL g) g k pos endt value cases s) ts n.

Lemma SwLoop_ld m pos endt v cases t l n rest :
  t_typ t = pit_LeftDelim -> SwLoop m pos endt v cases l n rest -> SwLoop m pos endt v cases (t :: l) n rest.
Proof.
  intros Ht HL s p sc H0 Hm. apply runs_Slf. cbn [switch_loop].
  run run_next as p1 [H1 _]. rewrite (tis_eq t _ Ht). apply HL; assumption.
Qed.

Lemma SwLoop_case m pos endt v cases t l c l2 n rest :
  (t_typ t = pit_Case \/ t_typ t = pit_Default) -> last_is_default cases = false ->
  CaseRun m t [] l c l2 -> SwLoop m pos endt v (cases ++ [c]) l2 n rest ->
  SwLoop m pos endt v cases (t :: l) n rest.
Proof.
  intros Ht Hld HC HL s p sc H0 Hm. apply runs_Slf. cbn [switch_loop]. run run_next as p1 [H1 _].
  assert (E : tis t pit_LeftDelim = false /\ tis t pit_Text = false /\ tis t pit_Case || tis t pit_Default = true).
  { destruct Ht as [Ht|Ht]; rewrite !(tis_typ t _ _ Ht); vm_compute; auto. }
  destruct E as (E1 & E2 & E3). rewrite E1, E2, E3, Hld.
  run (Run_diag HC) as p2 H2. apply HL; assumption.
Qed.

Lemma SwLoop_end m pos endt v cases t rd rest :
  t_typ t = endt -> (endt = pit_SwitchEnd \/ endt = pit_PluralEnd) -> t_typ rd = pit_RightDelim ->
  SwLoop m pos endt v cases (t :: rd :: rest) (NSwitch pos v cases) rest.
Proof.
  intros Ht He Hrd s p sc H0 Hm. apply runs_Slf. cbn [switch_loop]. run run_next as p1 [H1 _].
  assert (E : tis t pit_LeftDelim = false /\ tis t pit_Text = false /\ tis t pit_Case || tis t pit_Default = false /\ tis t endt = true).
  { destruct He as [He|He]; rewrite He in Ht |- *; rewrite !(tis_typ t _ _ Ht); vm_compute; auto. }
  destruct E as (E1 & E2 & E3 & E4). rewrite E1, E2, E3, E4.
  run (run_expect Hrd) as p2 [H2 _]. apply runs_ret, H2.
Qed.

Lemma switch_run m token endt l v rd l1 n rest :
  Parses 0 l v (rd :: l1) -> t_typ rd = pit_RightDelim -> SwLoop m (t_pos token) endt v [] l1 n rest ->
  Run m (fun p => feeds p rest) (fun g _ s => parse_switch inlen (PE g) (IL g) g token endt s) l n.
Proof.
  intros HP Hrd HL s p sc H0 Hm. unfold parse_switch.
  run (run_expr HP) as p1 H1. run (run_expect Hrd) as p2 [H2 _]. apply (Run_diag HL); assumption.
Qed.

Lemma Tag_switch k l v rd l1 n rest :
  t_typ k = pit_Switch -> Parses 0 l v (rd :: l1) -> t_typ rd = pit_RightDelim ->
  SwLoop false (t_pos k) pit_SwitchEnd v [] l1 n rest -> Tag false (k :: l) n rest.
Proof.
  intros Hk HP Hrd HL. tag_start Hk s p sc p1 H1 Hm. not_in_msg Hm. apply runs_some.
  eapply switch_run; eassumption.
Qed.
End Switch.
Arguments switch_run {ns al inlen lexq unq efuel m token endt l v rd l1 n rest}.
