(* C14, gen_defines_templates: the function headers of a generated file are
   exactly the file's templates, and the namespace-object declarations are
   the dotted prefixes of its namespace. *)
From Soy Require Import Model.Bytes Model.Num Model.Values Model.Outcome Model.Ast Model.Utf8 Model.JsEscape
  Generated.Tables Model.JsGen Spec.JsOut Proofs.BytesBase Proofs.JsGenProofs Proofs.JsGenInv.
Open Scope N_scope.

(* ---- the two marker texts occur nowhere else in the vocabulary ---- *)
Definition not_marker (c : chunk) : Prop := c <> CText t_fn_params /\ c <> CText t_ns1.

Definition no_marker_b (t : bstr) : bool := negb (bstr_eqb t t_fn_params) && negb (bstr_eqb t t_ns1).
Lemma no_marker_b_ok t : no_marker_b t = true -> not_marker (CText t).
Proof.
  unfold no_marker_b. intro H. apply andb_prop in H. destruct H as [H1 H2].
  apply negb_true_iff in H1, H2. apply bstr_eqb_neq in H1, H2. split; intro E; inversion E; congruence.
Qed.
Lemma body_texts_no_marker : forallb no_marker_b body_texts = true.
Proof. vm_compute. reflexivity. Qed.
Lemma table_texts_no_marker : forallb no_marker_b table_texts = true.
Proof. vm_compute. reflexivity. Qed.

Lemma indent_no_marker n : not_marker (CText (indent_text n)).
Proof. destruct n; split; intro E; inversion E. Qed.
Lemma sym_no_marker op_ : not_marker (CText (binop_sym op_)).
Proof. destruct op_; split; intro E; inversion E. Qed.

Lemma no_tmpl_ns_children n : no_tmpl_ns n -> Forall no_tmpl_ns (children n).
Proof. intro H. apply Forall_forall. intros c Hc m Hm. apply H. eapply reach_step; eauto. Qed.
Lemma no_tmpl_ns_int p z : no_tmpl_ns (NInt p z).
Proof. intros m Hm. inversion Hm; subst. exact I. cbn in H. contradiction. Qed.

(* walking a node that nests no template / namespace emits no marker *)
Theorem walk_no_marker o fuel n : no_tmpl_ns n -> jspec not_marker T (jwalk o fuel n).
Proof.
  refine (sp_walk o not_marker no_tmpl_ns no_tmpl_ns_children no_tmpl_ns_int _ _ indent_no_marker sym_no_marker _ _ _ _ _ _ _ fuel n).
  - intros t Hin. apply no_marker_b_ok. exact (proj1 (forallb_forall _ _) body_texts_no_marker t Hin).
  - intros t Hin. apply no_marker_b_ok. exact (proj1 (forallb_forall _ _) table_texts_no_marker t Hin).
  - intros q s _. split; discriminate.
  - intros s. split; discriminate.
  - intros z. split; discriminate.
  - intros z. split; discriminate.
  - intros f s _. split; discriminate.
  - intros p nm bd ae pr H. exfalso. exact (H _ (reach_refl _)).
  - intros p nm ae H. exfalso. exact (H _ (reach_refl _)).
Qed.

Lemma nm_body t : In t body_texts -> not_marker (CText t).
Proof. intro Hin. apply no_marker_b_ok. exact (proj1 (forallb_forall _ _) body_texts_no_marker t Hin). Qed.

(* ---- the two scanners over segments ---- *)
Definition Q3 (c : chunk) : Prop := c <> CText t_fn_params.
Definition Q4 (c : chunk) : Prop := c <> CText t_ns1.
Lemma nm_Q3 cs : Forall not_marker cs -> Forall Q3 cs.
Proof. intro F. eapply Forall_impl; [|exact F]. intros c [H _]. exact H. Qed.
Lemma nm_Q4 cs : Forall not_marker cs -> Forall Q4 cs.
Proof. intro F. eapply Forall_impl; [|exact F]. intros c [_ H]. exact H. Qed.

Fixpoint dnlast (last : option bstr) (cs : list chunk) : option bstr :=
  match cs with
  | [] => last
  | CName x :: r => dnlast (Some x) r
  | _ :: r => dnlast last r
  end.

Lemma dn_app_Q3 cs rest last : Forall Q3 cs -> dn last (cs ++ rest) = dn (dnlast last cs) rest.
Proof.
  revert last. induction cs as [|c r IH]; intros last F; [reflexivity|]. inversion F; subst.
  destruct c; cbn [app dn dnlast]; try (apply IH; assumption).
  destruct (bstr_eqb t t_fn_params) eqn:E; [|apply IH; assumption].
  apply bstr_eqb_eq in E. subst. exfalso. apply H1. reflexivity.
Qed.

Lemma declared_app_Q4 cs rest : Forall Q4 cs -> declared_objects (cs ++ rest) = declared_objects rest.
Proof.
  induction cs as [|c r IH]; intros F; [reflexivity|]. inversion F; subst.
  destruct c; cbn [app declared_objects]; try (apply IH; assumption).
  assert (E : bstr_eqb t t_ns1 = false).
  { destruct (bstr_eqb t t_ns1) eqn:E; [|reflexivity]. apply bstr_eqb_eq in E. subst. exfalso. apply H1. reflexivity. }
  rewrite E. transitivity (declared_objects (r ++ rest)); [|apply IH; assumption].
  destruct (r ++ rest) as [|[] ?]; reflexivity.
Qed.

(* the function header line *)
Lemma dn_header o name last rest :
  dn last (template_header_line o name ++ rest)
  = fmt_bytes (fmt_template_name (o_fmt o)) name :: dn (Some (fmt_bytes (fmt_template_name (o_fmt o)) name)) rest.
Proof.
  unfold template_header_line. destruct (o_fmt o); cbn; rewrite app_nil_r; reflexivity.
Qed.
Lemma header_Q4 o name : Forall Q4 (template_header_line o name).
Proof. unfold template_header_line. destruct (o_fmt o); cbn; repeat constructor; intro E; inversion E. Qed.

(* one namespace declaration line *)
Definition decl_line (ind pre : bstr) : list chunk :=
  [CText ind] ++ ([CText t_ns1; CName pre; CText t_ns2] ++ (if has_dot pre then [] else [CText t_var]) ++ [CName pre; CText t_ns3]) ++ [CText t_nl].

Lemma decl_line_Q3 n pre : Forall Q3 (decl_line (indent_text n) pre).
Proof.
  unfold decl_line. constructor. exact (proj1 (indent_no_marker n)).
  destruct (has_dot pre); cbn; repeat constructor; intro E; inversion E.
Qed.
Lemma declared_decl_line n pre rest :
  declared_objects (decl_line (indent_text n) pre ++ rest) = pre :: declared_objects rest.
Proof.
  unfold decl_line.
  destruct (has_dot pre); cbn [app declared_objects];
    repeat match goal with
           | |- context [bstr_eqb ?a ?c] =>
               first [ replace (bstr_eqb a c) with true by reflexivity | replace (bstr_eqb a c) with false by reflexivity ]
           end;
    f_equal; destruct rest as [|[] ?]; reflexivity.
Qed.

(* ---- exact emission of jsln and of the namespace declarations ---- *)
Lemma jsln_exact cs st :
  exists st', jsln cs st = Ok (tt, st')
    /\ j_out st' = rev (CText (indent_text (j_indent st)) :: cs ++ [CText t_nl]) ++ j_out st
    /\ j_indent st' = j_indent st /\ j_called st' = j_called st.
Proof.
  eexists. split; [reflexivity|]. cbn. split; [|split; reflexivity].
  rewrite !rev_append_rev. cbn. rewrite rev_app_distr. cbn. rewrite <- !app_assoc. reflexivity.
Qed.

Lemma ns_decls_exact f name : forall i st x st', ns_decls f name i st = Ok (x, st') ->
  j_out st' = rev (flat_map (decl_line (indent_text (j_indent st))) (ns_prefixes f name i)) ++ j_out st
  /\ j_indent st' = j_indent st /\ j_called st' = j_called st.
Proof.
  induction f as [|f IH]; intros i st x st' E; cbn [ns_decls ns_prefixes] in *; [discriminate|].
  cbv zeta in *. destruct (Nat.ltb i (length name)).
  - set (i' := match find_dot (drop (S i) name) (S i) with Some j => j | None => length name end) in *.
    unfold jbind in E at 1.
    match type of E with context [jsln ?cs st] => destruct (jsln_exact cs st) as (st1 & E1 & Eo1 & Ei1 & Ec1); rewrite E1 in E end.
    destruct (IH _ _ _ _ E) as (Eo & Ei & Ec). rewrite Ei1 in Eo. split; [|split; congruence].
    rewrite Eo, Eo1. cbn [flat_map]. symmetry. rewrite rev_app_distr. rewrite <- app_assoc. reflexivity.
  - inversion E; subst. cbn. auto.
Qed.

(* ---- one template ---- *)
Definition seg_tmpl (o : jopts) (name : bstr) (cs : list chunk) : Prop :=
  exists pre post, cs = pre ++ template_header_line o name ++ post /\ Forall not_marker pre /\ Forall not_marker post.

Lemma called_ok_same Q st st' : j_called st' = j_called st -> called_ok Q st -> called_ok Q st'.
Proof. unfold called_ok. intros E H. rewrite E. exact H. Qed.

(* one step of the walker: s.at(node), then the case for the node *)
Lemma jwalk_S o f n st : jwalk o (S f) n st = jwalk_node o (jwalk o f) (j_cur st) n (jset_cur (soydoc_flags n) st).
Proof. reflexivity. Qed.

Lemma visit_template_seg o f prev name body ae st x st' :
  no_tmpl_ns body -> called_ok not_marker st ->
  visit_template o (jwalk o f) prev name body ae st = Ok (x, st') ->
  exists cs, j_out st' = rev cs ++ j_out st /\ seg_tmpl o name cs /\ called_ok not_marker st'.
Proof.
  intros Hb Hc E. unfold visit_template in E. apply jbind_inv in E. destruct E as (st0 & ? & [= <- <-] & E). cbv zeta in E.
  apply jbind_inv in E. destruct E as (u1 & st1 & E1 & E).
  destruct (sp_template_head not_marker nm_body indent_no_marker ae st u1 st1 Hc E1) as (cs1 & Eo1 & F1 & C1 & _).
  unfold jbind at 1 in E.
  destruct (jsln_exact (template_header_line o name) st1) as (st2 & E2 & Eo2 & Ei2 & Ec2). rewrite E2 in E.
  assert (C2 : called_ok not_marker st2) by (eapply called_ok_same; eauto).
  match type of E with template_rest _ _ ?old ?ao _ _ _ = _ =>
    destruct (sp_template_rest o not_marker no_tmpl_ns nm_body indent_no_marker (jwalk o f)
                (fun n Hn => walk_no_marker o f n Hn) old ao name body Hb st2 x st' C2 E) as (cs3 & Eo3 & F3 & C3 & _)
  end.
  exists (cs1 ++ [CText (indent_text (j_indent st1))] ++ template_header_line o name ++ [CText t_nl] ++ cs3).
  split; [|split; [|exact C3]].
  - rewrite Eo3, Eo2, Eo1. rewrite !rev_app_distr. cbn [rev app]. rewrite !rev_app_distr. cbn [rev app].
    rewrite <- !app_assoc. cbn [app]. reflexivity.
  - exists (cs1 ++ [CText (indent_text (j_indent st1))]), ([CText t_nl] ++ cs3). split; [|split].
    + rewrite <- !app_assoc. reflexivity.
    + apply Forall_app. split; auto. constructor; [apply indent_no_marker|constructor].
    + apply Forall_app. split; auto. constructor; [apply no_marker_b_ok; reflexivity|constructor].
Qed.

Lemma dn_seg_tmpl o name cs last rest : seg_tmpl o name cs ->
  exists last', dn last (cs ++ rest) = fmt_bytes (fmt_template_name (o_fmt o)) name :: dn last' rest.
Proof.
  intros (pre & post & -> & Fp & Fq).
  rewrite <- !app_assoc. rewrite dn_app_Q3 by (apply nm_Q3; exact Fp). rewrite dn_header.
  rewrite dn_app_Q3 by (apply nm_Q3; exact Fq). eexists. reflexivity.
Qed.
Lemma declared_seg_tmpl o name cs rest : seg_tmpl o name cs -> declared_objects (cs ++ rest) = declared_objects rest.
Proof.
  intros (pre & post & -> & Fp & Fq). apply declared_app_Q4.
  apply Forall_app. split; [apply nm_Q4; exact Fp|]. apply Forall_app. split; [apply header_Q4|apply nm_Q4; exact Fq].
Qed.

(* ---- one namespace ---- *)
Lemma declared_decl_lines n pres rest :
  declared_objects (flat_map (decl_line (indent_text n)) pres ++ rest) = pres ++ declared_objects rest.
Proof.
  induction pres as [|p r IH]; [reflexivity|]. cbn [flat_map]. rewrite <- app_assoc. rewrite declared_decl_line. rewrite IH. reflexivity.
Qed.
Lemma decl_lines_Q3 n pres : Forall Q3 (flat_map (decl_line (indent_text n)) pres).
Proof. induction pres as [|p r IH]; cbn [flat_map]. constructor. apply Forall_app. split; [apply decl_line_Q3|exact IH]. Qed.

(* ---- a top-level node ---- *)
Definition top_names (o : jopts) (n : node) : list bstr :=
  match n with NTemplate _ name _ _ _ => [fmt_bytes (fmt_template_name (o_fmt o)) name] | _ => [] end.
Definition top_decls (n : node) : list bstr :=
  match n with NNamespace _ name _ => ns_prefix_list name | _ => [] end.

Definition seg_ok (o : jopts) (names decls : list bstr) (cs : list chunk) : Prop :=
  (forall last rest, exists last', dn last (cs ++ rest) = names ++ dn last' rest)
  /\ (forall rest, declared_objects (cs ++ rest) = decls ++ declared_objects rest).

Lemma seg_ok_plain o cs : Forall not_marker cs -> seg_ok o [] [] cs.
Proof.
  intro F. split.
  - intros last rest. eexists. rewrite dn_app_Q3 by (apply nm_Q3; exact F). reflexivity.
  - intros rest. apply declared_app_Q4. apply nm_Q4; exact F.
Qed.

Lemma seg_ok_app o n1 d1 c1 n2 d2 c2 : seg_ok o n1 d1 c1 -> seg_ok o n2 d2 c2 -> seg_ok o (n1 ++ n2) (d1 ++ d2) (c1 ++ c2).
Proof.
  intros [A1 B1] [A2 B2]. split.
  - intros last rest. rewrite <- app_assoc. destruct (A1 last (c2 ++ rest)) as (l1 & E1). destruct (A2 l1 rest) as (l2 & E2).
    exists l2. rewrite E1, E2, <- app_assoc. reflexivity.
  - intros rest. rewrite <- app_assoc, B1, B2, <- app_assoc. reflexivity.
Qed.

Lemma top_node_seg o fuel n st x st' : top_ok n -> called_ok not_marker st -> jwalk o fuel n st = Ok (x, st') ->
  exists cs, j_out st' = rev cs ++ j_out st /\ called_ok not_marker st' /\ seg_ok o (top_names o n) (top_decls n) cs.
Proof.
  intros Ht Hc E.
  assert (Hplain : no_tmpl_ns n -> top_names o n = [] -> top_decls n = [] ->
            exists cs, j_out st' = rev cs ++ j_out st /\ called_ok not_marker st' /\ seg_ok o (top_names o n) (top_decls n) cs).
  { intros Hn -> ->. destruct (walk_no_marker o fuel n Hn st x st' Hc E) as (cs & Eo & F & C & _).
    exists cs. split; [exact Eo|]. split; [exact C|]. apply seg_ok_plain; exact F. }
  destruct fuel as [|f]; [discriminate|].
  destruct n; try (apply Hplain; [exact Ht|reflexivity|reflexivity]).
  - (* NTemplate *)
    rewrite jwalk_S in E. cbn [jwalk_node] in E.
    cbn [top_ok] in Ht.
    match type of E with visit_template _ _ ?prev _ _ _ ?st0 = _ =>
      destruct (visit_template_seg o f prev name n autoescape st0 x st' Ht Hc E) as (cs & Eo & Hs & C) end.
    exists cs. split; [exact Eo|]. split; [exact C|]. split.
    + intros last rest. destruct (dn_seg_tmpl o name cs last rest Hs) as (l' & El). exists l'. exact El.
    + intros rest. cbn [top_decls app]. apply (declared_seg_tmpl o name); exact Hs.
  - (* NNamespace *)
    rewrite jwalk_S in E. cbn [jwalk_node] in E.
    unfold jbind at 1 in E. unfold jmod at 1 in E. cbv beta iota zeta in E.
    destruct (ns_decls_exact _ _ _ _ _ _ E) as (Eo & Ei & Ec). cbn in Eo, Ec.
    eexists. split; [exact Eo|]. split; [eapply called_ok_same; [exact Ec|exact Hc]|]. split.
    + intros last rest. eexists. rewrite dn_app_Q3 by apply decl_lines_Q3. reflexivity.
    + intros rest. cbn [top_decls]. apply declared_decl_lines.
Qed.

Lemma top_list_seg o fuel body : Forall top_ok body -> forall st x st', called_ok not_marker st ->
  jwalk_list (jwalk o fuel) body st = Ok (x, st') ->
  exists cs, j_out st' = rev cs ++ j_out st /\ called_ok not_marker st'
    /\ seg_ok o (flat_map (top_names o) body) (flat_map top_decls body) cs.
Proof.
  induction 1 as [|n r Hn Hr IH]; intros st x st' Hc E; cbn [jwalk_list] in E.
  - inversion E; subst. exists []. split; [reflexivity|]. split; [exact Hc|]. apply seg_ok_plain. constructor.
  - apply jbind_inv in E. destruct E as (u & st1 & E1 & E).
    destruct (top_node_seg o fuel n st u st1 Hn Hc E1) as (c1 & Eo1 & C1 & S1).
    destruct (IH st1 x st' C1 E) as (c2 & Eo2 & C2 & S2).
    exists (c1 ++ c2). split; [|split; [exact C2|]].
    + rewrite Eo2, Eo1, rev_app_distr, <- app_assoc. reflexivity.
    + cbn [flat_map]. apply seg_ok_app; assumption.
Qed.

Lemma flat_top_names o body : flat_map (top_names o) body = map (fun t => fmt_bytes (fmt_template_name (o_fmt o)) t) (template_names body).
Proof. induction body as [|n r IH]; [reflexivity|]. destruct n; cbn [flat_map top_names template_names map app]; try exact IH. f_equal. exact IH. Qed.
Lemma flat_top_decls body : flat_map top_decls body = flat_map ns_prefix_list (namespace_names body).
Proof. induction body as [|n r IH]; [reflexivity|]. destruct n; cbn [flat_map top_decls namespace_names app]; try exact IH. f_equal. exact IH. Qed.

Lemma dn_nil last : dn last [] = []. Proof. reflexivity. Qed.

(* ---- the whole file ---- *)
Theorem gen_defines_templates o fuel name body cs : Forall top_ok body -> gen_file o fuel name body = Ok cs ->
  defined_names cs = map (fun t => fmt_bytes (fmt_template_name (o_fmt o)) t) (template_names body)
  /\ declared_objects cs = flat_map ns_prefix_list (namespace_names body).
Proof.
  intros Ft E. unfold gen_file in E.
  destruct (visit_file o fuel name body jinit_state) as [[u st]| | | | |] eqn:Ev; try discriminate.
  inversion E; subst. clear E.
  unfold visit_file in Ev.
  assert (nm_file : forall s, not_marker (CFile s)) by (intro s; split; discriminate).
  assert (Hl : forall cs0, Forall not_marker cs0 -> jspec not_marker T (jsln cs0))
    by (intros; apply sp_jsln; auto using nm_body, indent_no_marker).
  assert (Hc0 : called_ok not_marker jinit_state) by constructor.
  assert (G1 : Forall not_marker [CText t_hdr1; CFile (line_comment_safe name); CText t_dot])
    by (constructor; [apply no_marker_b_ok; reflexivity|constructor; [apply nm_file|constructor; [apply no_marker_b_ok; reflexivity|constructor]]]).
  assert (G2 : Forall not_marker [CText t_hdr2]) by (constructor; [apply no_marker_b_ok; reflexivity|constructor]).
  apply jbind_inv in Ev. destruct Ev as (u1 & s1 & E1 & Ev).
  destruct (Hl _ G1 _ _ _ Hc0 E1) as (c1 & Eo1 & F1 & C1 & _).
  apply jbind_inv in Ev. destruct Ev as (u2 & s2 & E2 & Ev).
  destruct (Hl _ G2 _ _ _ C1 E2) as (c2 & Eo2 & F2 & C2 & _).
  apply jbind_inv in Ev. destruct Ev as (u3 & s3 & E3 & Ev).
  destruct (Hl _ (Forall_nil _) _ _ _ C2 E3) as (c3 & Eo3 & F3 & C3 & _).
  destruct (top_list_seg o fuel body Ft s3 u st C3 Ev) as (c4 & Eo4 & C4 & [SA SB]).
  assert (Eout : rev (j_out st) = (c1 ++ c2 ++ c3) ++ c4).
  { rewrite Eo4, Eo3, Eo2, Eo1. cbn. rewrite app_nil_r. rewrite !rev_app_distr, !rev_involutive, <- !app_assoc. reflexivity. }
  rewrite Eout.
  set (imports := match j_called st with [] => [] | _ :: _ => _ end).
  assert (Fi : Forall not_marker imports).
  { subst imports. destruct (j_called st) as [|c0 cr] eqn:Ec. constructor.
    apply Forall_app. split; [|constructor; [apply no_marker_b_ok; reflexivity|constructor]].
    apply import_lines_Q. intros t Hin. apply nm_body; exact Hin. rewrite <- Ec. exact C4. }
  assert (Fpre : Forall not_marker (imports ++ c1 ++ c2 ++ c3)) by (repeat (apply Forall_app; split); auto).
  rewrite <- (app_nil_r c4). rewrite app_assoc. split.
  - unfold defined_names. rewrite dn_app_Q3 by (apply nm_Q3; exact Fpre).
    destruct (SA (dnlast None (imports ++ c1 ++ c2 ++ c3)) []) as (l' & El). rewrite El, dn_nil, app_nil_r. apply flat_top_names.
  - rewrite declared_app_Q4 by (apply nm_Q4; exact Fpre). rewrite SB. cbn [declared_objects]. rewrite app_nil_r. apply flat_top_decls.
Qed.

(* ---- the declared objects are the dotted prefixes of the namespace ---- *)
Lemma find_dot_bounds s : forall k j, find_dot s k = Some j -> (k <= j < k + length s)%nat.
Proof.
  induction s as [|c r IH]; intros k j H; cbn in H; [discriminate|].
  destruct (c =? 46). inversion H; subst. cbn. lia. apply IH in H. cbn. lia.
Qed.

Lemma ns_prefixes_take f name : forall i, Forall (fun p => exists k, p = take k name) (ns_prefixes f name i).
Proof.
  induction f as [|f IH]; intro i; cbn [ns_prefixes]; [constructor|]. cbv zeta.
  destruct (Nat.ltb i (length name)); constructor; [eexists; reflexivity|apply IH].
Qed.

Lemma ns_prefixes_last f name : forall i, (i < length name)%nat -> (length name - i <= f)%nat ->
  last (ns_prefixes f name i) [] = name.
Proof.
  induction f as [|f IH]; intros i Hi Hf; [lia|]. cbn [ns_prefixes]. cbv zeta.
  destruct (Nat.ltb_spec i (length name)) as [_|]; [|lia].
  set (i' := match find_dot (drop (S i) name) (S i) with Some j => j | None => length name end).
  assert (Hi' : (i < i' <= length name)%nat).
  { subst i'. destruct (find_dot (drop (S i) name) (S i)) as [j|] eqn:Ef; [|lia].
    apply find_dot_bounds in Ef. rewrite drop_length in Ef. lia. }
  destruct (Nat.eq_dec i' (length name)) as [El|Hn].
  - rewrite El. destruct f; cbn [ns_prefixes]; cbv zeta; try rewrite Nat.ltb_irrefl; cbn [last]; apply take_whole.
  - assert (Hlt : (i' < length name)%nat) by lia.
    specialize (IH i' Hlt ltac:(lia)).
    destruct (ns_prefixes f name i') as [|p r] eqn:Ep.
    + destruct f; [lia|]. cbn [ns_prefixes] in Ep. cbv zeta in Ep.
      destruct (Nat.ltb_spec i' (length name)); [discriminate|lia].
    + cbn [last]. exact IH.
Qed.

Theorem ns_prefixes_spec name : name <> [] ->
  last (ns_prefix_list name) [] = name /\ Forall (fun p => exists k, p = take k name) (ns_prefix_list name).
Proof.
  intro Hne. unfold ns_prefix_list. split; [|apply ns_prefixes_take].
  apply ns_prefixes_last. destruct name; [congruence|cbn; lia]. lia.
Qed.

Lemma reach_inv n m : reach n m -> m = n \/ exists c, In c (children n) /\ reach c m.
Proof. intro H. inversion H; subst; [left; reflexivity|right; eauto]. Qed.
