(* C04, the statement stages, the generator: walking a statement in Model/JsGen.v emits the chunks of the MiniJS printer (sgen_print_all) *)
From Soy Require Import Model.Bytes Model.Num Model.Values Model.Outcome Model.Ast Model.JsGen Model.MiniJS
  Model.Escape Model.Directives Model.Print Generated.Tables Model.Interp
  Proofs.EscapeProofs Proofs.MiniJSProofs Proofs.MiniJSPrint Proofs.MiniJSStmt Model.MsgId Proofs.MsgIdProofs Proofs.MiniJSCtl Proofs.MiniJSGo.
Open Scope N_scope.

Lemma sprint_var ind g e : sprint ind (JSVar g e) = sp_ind ind ++ ([CText t_var; CName g; CText t_eq] ++ jprint e ++ [CText t_semi]) ++ [CText t_nl].
Proof. reflexivity. Qed.
Lemma sprint_varblock ind g body : sprint ind (JSVarBlock g body) = sp_ind ind ++ [CText t_var; CName g; CText t_eq_empty] ++ [CText t_nl] ++ bprint ind body.
Proof. reflexivity. Qed.
Lemma sprint_if ind c th rest : sprint ind (JSIf c th rest)
  = sp_ind ind ++ [CText t_if_open] ++ jprint c ++ [CText t_op_mid1; CText t_brace_nl] ++ bprint (S ind) th
    ++ sp_ind ind ++ [CText t_rbrace] ++ lprint ind rest ++ [CText t_nl].
Proof. reflexivity. Qed.
Lemma sprint_switch ind v cs : sprint ind (JSSwitch v cs)
  = sp_ind ind ++ [CText t_switch_open] ++ jprint v ++ [CText t_for_close; CText t_nl] ++ kprint (S ind) cs
    ++ sp_ind ind ++ [CText t_rbrace; CText t_nl].
Proof. reflexivity. Qed.
Lemma sprint_css ind buf e sfx : sprint ind (JSCss buf e sfx)
  = (match e with
     | Some x => [CText (indent_text ind); CName buf; CText t_pluseq] ++ jprint x ++ [CText t_css_tail; CText t_nl]
     | None => []
     end) ++ [CText (indent_text ind); CName buf; CText t_pluseq; CStrLit 39 sfx; CText t_semi_nl].
Proof. reflexivity. Qed.
Lemma sprint_call ind buf name d ps : sprint ind (JSCall buf name d ps)
  = pprint ind ps ++ sp_ind ind ++ ([CName buf; CText t_pluseq; CName name; CText t_lpar] ++ jcall_arg d (jp_args ps) ++ [CText t_call_tail]) ++ [CText t_nl].
Proof. reflexivity. Qed.
Lemma pprint_cont ind k g body r : pprint ind (JPCont k g body r)
  = (sp_ind ind ++ [CText t_var; CName g; CText t_eq_empty] ++ [CText t_nl]) ++ bprint ind body ++ pprint ind r.
Proof. reflexivity. Qed.
Lemma bprint_cons ind s r : bprint ind (JBCons s r) = sprint ind s ++ bprint ind r. Proof. reflexivity. Qed.
Lemma lprint_else ind b : lprint ind (JLElse b) = [CText t_else; CText t_brace_nl] ++ bprint (S ind) b ++ sp_ind ind ++ [CText t_rbrace].
Proof. reflexivity. Qed.
Lemma lprint_elif ind c th rest : lprint ind (JLElif c th rest)
  = [CText t_else; CText t_if_open] ++ jprint c ++ [CText t_op_mid1; CText t_brace_nl] ++ bprint (S ind) th
    ++ sp_ind ind ++ [CText t_rbrace] ++ lprint ind rest.
Proof. reflexivity. Qed.
Lemma sprint_plural ind v cs : sprint ind (JSPlural v cs)
  = sp_ind ind ++ [CText t_switch_open] ++ jprint v ++ [CText t_for_close; CText t_nl] ++ kprint_nb (S ind) cs
    ++ sp_ind ind ++ [CText t_rbrace; CText t_nl].
Proof. reflexivity. Qed.
Lemma kprint_nb_default ind b : kprint_nb ind (JKDefault b) = sp_ind ind ++ [CText t_default; CText t_nl] ++ bprint (S ind) b.
Proof. reflexivity. Qed.
Lemma kprint_nb_case ind v vs b rest : kprint_nb ind (JKCase v vs b rest)
  = jk_values ind (v :: vs) ++ bprint (S ind) b ++ sp_ind (S ind) ++ [CText t_break; CText t_nl] ++ kprint_nb ind rest.
Proof. reflexivity. Qed.
Lemma kprint_default ind b : kprint ind (JKDefault b)
  = sp_ind ind ++ [CText t_default; CText t_nl] ++ bprint (S ind) b ++ sp_ind (S ind) ++ [CText t_break; CText t_nl].
Proof. reflexivity. Qed.
Lemma kprint_case ind v vs b rest : kprint ind (JKCase v vs b rest)
  = jk_values ind (v :: vs) ++ bprint (S ind) b ++ sp_ind (S ind) ++ [CText t_break; CText t_nl] ++ kprint ind rest.
Proof. reflexivity. Qed.

Lemma swf_let lv name e : swf lv (SLet name e) = is_ident name && cwf lv e. Proof. reflexivity. Qed.
Lemma swf_letc lv name body : swf lv (SLetC name body) = is_ident name && bwf lv body. Proof. reflexivity. Qed.
Lemma swf_if lv c th rest : swf lv (SIf c th rest) = cwf lv c && bwf lv th && ewf lv rest. Proof. reflexivity. Qed.
Lemma swf_switch lv v cs : swf lv (SSwitch v cs) = cwf lv v && kwf lv cs. Proof. reflexivity. Qed.
Lemma swf_for lv x e body hasie ie : swf lv (SFor x e body hasie ie) = is_ident x && cwf lv e && bwf (x :: lv) body && bwf lv ie. Proof. reflexivity. Qed.
Lemma swf_forrange lv x a1 rest body hasie ie : swf lv (SForRange x a1 rest body hasie ie)
  = is_ident x && (Nat.leb (length rest) 2) && cwf lv a1 && forallb (cwf lv) rest && bwf (x :: lv) body && bwf lv ie. Proof. reflexivity. Qed.
Lemma swf_call lv name d ps : swf lv (SCall name d ps)
  = (match d with DExpr e => cwf lv e | _ => true end) && pwf lv ps. Proof. reflexivity. Qed.
Lemma pwf_val lv k e r : pwf lv (PVal k e r) = cwf lv e && pwf lv r. Proof. reflexivity. Qed.
Lemma pwf_cont lv k body r : pwf lv (PCont k body r) = bwf lv body && pwf lv r. Proof. reflexivity. Qed.
Lemma bwf_cons lv s r : bwf lv (BCons s r) = swf lv s && bwf lv r. Proof. reflexivity. Qed.
Lemma ewf_else lv b : ewf lv (EElse b) = bwf lv b. Proof. reflexivity. Qed.
Lemma ewf_elif lv c th rest : ewf lv (EElif c th rest) = cwf lv c && bwf lv th && ewf lv rest. Proof. reflexivity. Qed.
Lemma kwf_default lv b : kwf lv (KDefault b) = bwf lv b. Proof. reflexivity. Qed.
Lemma swf_msgpl lv pn v q : swf lv (SMsgPl pn v q) = cwf lv v && qwf lv q. Proof. reflexivity. Qed.
Lemma qwf_dflt lv b : qwf lv (QDflt b) = msg_ok b && bwf lv b. Proof. reflexivity. Qed.
Lemma qwf_case lv z b r : qwf lv (QCase z b r) = msg_ok b && bwf lv b && qwf lv r. Proof. reflexivity. Qed.
Lemma kwf_case lv v vs b rest : kwf lv (KCase v vs b rest) = cwf lv v && forallb (cwf lv) vs && bwf lv b && kwf lv rest. Proof. reflexivity. Qed.

Lemma lvok_push lv sc : lvok lv sc -> lvok lv ([] :: sc).
Proof. intros H x Hx. rewrite jsc_loop_push. apply H; exact Hx. Qed.
Lemma lvok_bind lv sc name g : is_ident name = true -> lvok lv sc -> lvok lv (jsc_bind_pure sc name g).
Proof. intros Hid H x Hx. rewrite jsc_loop_bind by exact Hid. apply H; exact Hx. Qed.
Lemma lvok_frame lv sc x n : is_ident x = true -> lvok lv sc -> lvok (x :: lv) (loop_frame x n :: sc).
Proof.
  intros Hid H y Hy. rewrite jsc_loop_frame by exact Hid. cbn [existsb] in Hy. rewrite (bstr_eqb_sym y x) in Hy.
  destruct (bstr_eqb x y); cbn [fst].
  - destruct (jsc_name_cons (x ++ t_index) n) as (c0 & r0 & Hc). rewrite Hc. discriminate.
  - apply H. exact Hy.
Qed.
Lemma lvok_after lv mode buf sc n s j sc' n' : binder_ok s -> sgen mode buf sc n s = (j, (sc', n')) -> lvok lv sc -> lvok lv sc'.
Proof.
  intros Hb H Hlv. destruct (sgen_after _ _ _ _ _ _ _ _ H) as [->|(name & Hid & -> & _)]; [exact Hlv|].
  apply lvok_bind; auto.
Qed.

Ltac chunks_eq := repeat rewrite <- app_assoc; cbn [app]; rewrite ?app_nil_r; reflexivity.

Section StmtChunks.
Variable o : jopts.

(* the list of a {foreach} of the subset is not a call of range(): visitFor takes the foreach branch *)
Lemma for_dispatch (w : node -> J unit) x e body ifempty :
  match cnode e with
  | NFunc _ fname args => if bstr_eqb fname jn_range then visit_for_range w x args body ifempty else visit_foreach w x (cnode e) body ifempty
  | _ => visit_foreach w x (cnode e) body ifempty
  end = visit_foreach w x (cnode e) body ifempty.
Proof. destruct e; try reflexivity. destruct k; reflexivity. Qed.

(* the part of the generator's state a statement depends on: indentation, buffer variable, autoescape mode, scope, counter *)
Definition shape (st : jstate) (i : nat) (bf : bstr) (a : N) (sc : list (list (bstr * bstr))) (n : N) : Prop :=
  j_indent st = i /\ j_buf st = bf /\ j_auto st = a /\ j_scope st = sc /\ j_n st = n.
Lemma shape_refl st : shape st (j_indent st) (j_buf st) (j_auto st) (j_scope st) (j_n st).
Proof. repeat split. Qed.
(* what walking a statement does to the generator's state: the chunks appended and the shape afterwards; with a
   formatter that writes no import lines (c04_imp_free: ES5) the table of imports stays what it was *)
Definition gres (m : J unit) (st : jstate) (cs : list chunk) (i : nat) (bf : bstr) (a : N) (sc : list (list (bstr * bstr))) (n : N) : Prop :=
  exists stf, m st = Ok (tt, stf) /\ j_out stf = rev cs ++ j_out st /\ shape stf i bf a sc n
              /\ (c04_imp_free o -> j_called stf = j_called st).

Lemma gres_bind m f st c1 c2 i1 b1 a1 s1 n1 i2 b2 a2 s2 n2 :
  gres m st c1 i1 b1 a1 s1 n1 ->
  (forall x, shape x i1 b1 a1 s1 n1 -> gres (f tt) x c2 i2 b2 a2 s2 n2) ->
  gres (jbind m f) st (c1 ++ c2) i2 b2 a2 s2 n2.
Proof.
  intros (x & E1 & O1 & H1 & C1) Hf. destruct (Hf x H1) as (y & E2 & O2 & R & C2).
  exists y. rewrite (jbind_ok _ _ _ _ _ E1). split; [exact E2|]. split; [rewrite O2, O1, rev_app_distr, app_assoc; reflexivity|].
  split; [exact R|intro HF; rewrite (C2 HF); exact (C1 HF)].
Qed.
(* one command of the generator: the lemma for it, applied to what is known of the current state *)
Tactic Notation "gstep" uconstr(L) := eapply gres_bind; [eapply L; try eassumption | intros ? ?].
Lemma gres_eq m st cs cs' i b a s n : gres m st cs i b a s n -> cs = cs' -> gres m st cs' i b a s n.
Proof. intros H <-. exact H. Qed.
Lemma gres_ret st i b a s n : shape st i b a s n -> gres (jret tt) st [] i b a s n.
Proof. intro H. exists st. split; [reflexivity|]. split; [reflexivity|]. split; [exact H|reflexivity]. Qed.
Lemma gres_emit cs st i b a s n : shape st i b a s n -> gres (jemit cs) st cs i b a s n.
Proof. intro H. exists (st_out st cs). rewrite jemit_out. split; [reflexivity|]. destruct st; cbn in *. split; [reflexivity|]. split; [exact H|reflexivity]. Qed.
Lemma gres_txt t st i b a s n : shape st i b a s n -> gres (jtxt t) st [CText t] i b a s n.
Proof. apply gres_emit. Qed.
Lemma gres_indent st i b a s n : shape st i b a s n -> gres jindent st (sp_ind i) i b a s n.
Proof.
  intro H. unfold jindent, sp_ind. exists (st_out st [CText (indent_text (j_indent st))]). split; [unfold jbind, jget; apply jtxt_out|].
  destruct H as (<- & H). destruct st; cbn in *. split; [reflexivity|]. split; [split; [reflexivity|exact H]|reflexivity].
Qed.
Lemma gres_sln cs st i b a s n : shape st i b a s n -> gres (jsln cs) st (sp_ind i ++ cs ++ [CText t_nl]) i b a s n.
Proof.
  intro H. unfold jsln. gstep gres_indent. gstep gres_emit. apply gres_txt; eassumption.
Qed.
Lemma gres_inc st i b a s n : shape st i b a s n -> gres indent_inc st [] (S i) b a s n.
Proof. intros (<- & H). exists (set_indent (S (j_indent st)) st). destruct st; cbn in *. split; [reflexivity|]. split; [reflexivity|]. split; [split; [reflexivity|exact H]|reflexivity]. Qed.
Lemma gres_dec st i b a s n : shape st (S i) b a s n -> gres indent_dec st [] i b a s n.
Proof. intros (Hi & H). exists (set_indent (pred (j_indent st)) st). destruct st; cbn in *. subst. split; [reflexivity|]. split; [reflexivity|]. split; [split; [reflexivity|exact H]|reflexivity]. Qed.
Lemma gres_step {A} (m : J A) (f : A -> J unit) st x st2 cs i b a s n :
  m st = Ok (x, st2) -> j_out st2 = j_out st /\ j_called st2 = j_called st -> gres (f x) st2 cs i b a s n -> gres (jbind m f) st cs i b a s n.
Proof. intros E (O & C) (stf & E2 & O2 & R & C2). exists stf. rewrite (jbind_ok _ _ _ _ _ E). split; [exact E2|]. split; [congruence|]. split; [exact R|intro HF; rewrite (C2 HF); exact C]. Qed.
Lemma gres_pop st i b a f s n : shape st i b a (f :: s) n -> gres jsc_pop st [] i b a s n.
Proof.
  intros (I1 & B1 & A1 & S1 & N1). exists (set_scope (tl (j_scope st)) (j_n st) st). split; [reflexivity|].
  split; [destruct st; reflexivity|]. split; [|destruct st; reflexivity]. unfold shape. cbn [j_indent j_buf j_auto j_scope j_n set_scope]. rewrite S1. cbn [tl]. repeat split; assumption.
Qed.
Lemma gres_bufname (f : list chunk -> J unit) st cs i b a s n i' b' a' s' n' : shape st i b a s n ->
  gres (f [CName b]) st cs i' b' a' s' n' -> gres (bn <~ bufname ;; f bn) st cs i' b' a' s' n'.
Proof.
  intros H G. unfold bufname. eapply gres_step; [erewrite jbind_ok; [reflexivity|reflexivity]|split; reflexivity|].
  replace (j_buf st) with b by (symmetry; apply H). exact G.
Qed.
Lemma jblock_expr e lv F st1 : (cdepth e < F)%nat -> cwf lv e = true -> lvok lv (j_scope st1) ->
  jblock (jwalk o F) (cnode e) st1 = Ok (jprint (cgen (j_scope st1) e), st1).
Proof.
  intros Hf Hwf Hlv. unfold jblock, jbind, jget. rewrite (cgen_print o e lv F _ Hf Hwf).
  - unfold st_after, st_out. cbn [j_out j_called jset_cur upd_out j_scope].
    rewrite app_nil_r, rev_involutive. destruct st1; reflexivity.
  - exact Hlv.
Qed.
Lemma gres_expr e lv F st i b a s n : (cdepth e < F)%nat -> cwf lv e = true -> lvok lv s -> shape st i b a s n -> gres (jwalk o F (cnode e)) st (jprint (cgen s e)) i b a s n.
Proof.
  intros Hf Hwf Hlv H. exists (st_after st (jprint (cgen (j_scope st) e))).
  rewrite (cgen_print o e lv F st Hf Hwf) by (replace (j_scope st) with s by (symmetry; apply H); exact Hlv). split; [reflexivity|].
  rewrite j_out_st_after. destruct H as (H1 & H2 & H3 & H4 & H5). rewrite H4. split; [reflexivity|].
  unfold st_after, st_out. destruct st; cbn in *. repeat split; assumption.
Qed.
Lemma gres_walk F nd st cs i b a s k i' b' a' s' k' : soydoc_flags nd = None -> shape st i b a s k ->
  (forall st1, shape st1 i b a s k -> gres (jwalk_node o (jwalk o F) (j_cur st) nd) st1 cs i' b' a' s' k') ->
  gres (jwalk o (S F) nd) st cs i' b' a' s' k'.
Proof.
  intros Hfl Hs H. destruct (H (jset_cur None st)) as (stf & E & O & R & C). { destruct st; exact Hs. }
  exists stf. rewrite jwalk_S, Hfl. split; [exact E|]. split; [exact O|]. split; [exact R|intro HF; rewrite (C HF); destruct st; reflexivity].
Qed.

(* the JavaScript name a call uses is the template's name (the ES5 formatter; the ES6 formatter renames and imports) *)
Definition cn_ok : Prop := forall name, fmt_bytes (fmt_call_name (o_fmt o)) name = name.
Lemma gres_note key name st i b a s n : shape st i b a s n -> gres (note_called key (fmt_chunks (fmt_call_text (o_fmt o)) name)) st [] i b a s n.
Proof.
  intro H. destruct (fmt_chunks (fmt_call_text (o_fmt o)) name) as [|c r] eqn:Ef; [apply gres_ret; exact H|].
  exists (set_called (aset (j_called st) key (c :: r)) st). split; [reflexivity|]. split; [destruct st; reflexivity|].
  split; [destruct st; exact H|]. intro HF. rewrite (proj1 (HF name)) in Ef. discriminate Ef.
Qed.
(* visitCall's loop over the parameters, one step *)
Lemma jcall_params_val w first k e r acc st :
  jcall_params w first (NParamValue 0 k e :: r) acc st
  = (bl <~ jblock w e ;; jcall_params w false r ((if first then acc else acc ++ [CText t_comma_sp]) ++ [CName k; CText t_colon_sp] ++ bl)) st.
Proof. reflexivity. Qed.
Lemma jcall_params_cont w first k content r acc st :
  jcall_params w first (NParamContent 0 k content :: r) acc st
  = (jsln [CText t_var; CName (jsc_name t_param (j_n st + 1)); CText t_eq_empty] ;;; w content ;;; jmod (set_buf (j_buf st)) ;;;
     jcall_params w false r ((if first then acc else acc ++ [CText t_comma_sp]) ++ [CName k; CText t_colon_sp; CName (jsc_name t_param (j_n st + 1))]))
      (set_buf (jsc_name t_param (j_n st + 1)) (set_scope (j_scope st) (j_n st + 1) st)).
Proof. destruct first; reflexivity. Qed.

Definition GQ_s (s : cstmt) : Prop := forall lv f st j sc' n' i bf a sc n,
  (sdepth s < f)%nat -> sc <> [] -> lvok lv sc -> swf lv s = true -> shape st i bf a sc n -> sgen a bf sc n s = (j, (sc', n')) ->
  gres (jwalk o f (snode s)) st (sprint i j) i bf a sc' n'.
Definition GQ_b (b : cblk) : Prop := forall lv f st jb n' i bf a sc n,
  (bdepth b <= f)%nat -> sc <> [] -> lvok lv sc -> bwf lv b = true -> shape st i bf a sc n -> bgen a bf sc n b = (jb, n') ->
  exists sc', tl sc' = tl sc /\ (msg_ok b = true -> sc' = sc) /\ gres (jwalk_list (jwalk o f) (bnodes b)) st (bprint i jb) i bf a sc' n'.
Definition GQ_e (e : celse) : Prop := forall lv F st jl n' i bf a sc n,
  (edepth e < F)%nat -> sc <> [] -> lvok lv sc -> ewf lv e = true -> shape st i bf a sc n -> egen a bf sc n e = (jl, n') ->
  gres (jif_conds (jwalk o F) false (enodes e)) st (lprint i jl) i bf a sc n'.
Definition GQ_k (k : ccases) : Prop := forall lv F st jk n' i bf a sc n,
  (kdepth k < F)%nat -> sc <> [] -> lvok lv sc -> kwf lv k = true -> shape st i bf a sc n -> kgen a bf sc n k = (jk, n') ->
  gres (jswitch_cases (jwalk o F) (knodes k)) st (kprint i jk) i bf a sc n'.
Definition GQ_p (ps : cparams) : Prop := forall lv F st jps n' i bf a sc n first acc,
  (pdepth ps < F)%nat -> sc <> [] -> lvok lv sc -> pwf lv ps = true -> shape st i bf a sc n -> pgen a sc n ps = (jps, n') ->
  exists stf, jcall_params (jwalk o F) first (pnodes ps) acc st = Ok (acc ++ jps_print first (jp_args jps), stf)
              /\ j_out stf = rev (pprint i jps) ++ j_out st /\ shape stf i bf a sc n'
              /\ (c04_imp_free o -> j_called stf = j_called st).
(* the clauses of a plural: visitMsgNode's loop over the cases, then the default clause, in front of any rest *)
Definition c04_plgo (W : list node -> J unit) : list node -> J unit :=
  fix go (cs : list node) : J unit := match cs with [] => jret tt | c :: cr => plural_case_body W c ;;; go cr end.
Fixpoint c04_qlen (q : cplur) : nat :=
  match q with QDflt b => length (mnodes b) | QCase _ b r => Nat.max (length (mnodes b)) (c04_qlen r) end.
Definition GQ_q (q : cplur) : Prop := forall lv f F st jk n' i bf a sc n (rest : J unit) crest i2 b2 a2 s2 k2,
  (qdepth q <= F)%nat -> (c04_qlen q < f)%nat -> sc <> [] -> lvok lv sc -> qwf lv q = true -> shape st i bf a sc n -> qgen a bf sc n q = (jk, n') ->
  (forall y, shape y i bf a sc n' -> gres rest y crest i2 b2 a2 s2 k2) ->
  gres (c04_plgo (jmsg_children (jwalk o F) f) (qcnodes q) ;;;
        jsln [CText t_default] ;;; indent_inc ;;; jmsg_children (jwalk o F) f (qdnodes q) ;;; indent_dec ;;; rest)
       st (kprint_nb i jk ++ crest) i2 b2 a2 s2 k2.
Lemma gres_assoc (m k r : J unit) st cs i b a s n :
  gres (m ;;; (k ;;; r)) st cs i b a s n -> gres ((m ;;; k) ;;; r) st cs i b a s n.
Proof.
  intros (stf & E & R). exists stf. split; [|exact R]. rewrite <- E. unfold jbind. destruct (m st) as [[u st1]| | | | |]; reflexivity.
Qed.

(* the budget visitMsgNode's loop gets covers every case body *)
Definition c04_gosum : list node -> nat :=
  fix go (l : list node) : nat := match l with [] => 0%nat | x :: r => (nmsg_size x + go r)%nat end.
Lemma c04_gosum_cons x r : c04_gosum (x :: r) = (nmsg_size x + c04_gosum r)%nat. Proof. reflexivity. Qed.
Lemma c04_nmsg_plural p vn v cases dflt : nmsg_size (NMsgPlural p vn v cases dflt) = (4 + c04_gosum cases + c04_gosum dflt)%nat.
Proof. reflexivity. Qed.
Lemma c04_nmsg_case p z bd : nmsg_size (NMsgPluralCase p z bd) = (3 + c04_gosum bd)%nat.
Proof. reflexivity. Qed.
Lemma c04_gosum_mnodes b : c04_gosum (mnodes b) = length (mnodes b).
Proof. induction b as [|s r IH]; [reflexivity|]. cbn [mnodes c04_gosum length]. fold c04_gosum. rewrite IH. destruct s; reflexivity. Qed.
Lemma c04_qlen_gosum q : (c04_qlen q < 4 + c04_gosum (qcnodes q) + c04_gosum (qdnodes q) + 0)%nat.
Proof.
  induction q as [b|z b r IH].
  - rewrite qcnodes_dflt, qdnodes_dflt, c04_gosum_mnodes. cbn [c04_qlen]. lia.
  - rewrite qcnodes_case, qdnodes_case, c04_gosum_cons, c04_nmsg_case, c04_gosum_mnodes. cbn [c04_qlen]. lia.
Qed.

Lemma sgen_scope mode buf sc n s j sc' n' : sgen mode buf sc n s = (j, (sc', n')) -> sc <> [] -> tl sc' = tl sc /\ sc' <> [].
Proof.
  intros H Hn. destruct (sgen_after _ _ _ _ _ _ _ _ H) as [->|(name & _ & -> & _)]; [auto|].
  destruct sc as [|f r]; [congruence|]. cbn. split; [reflexivity|discriminate].
Qed.

(* a block: s.at, push a frame, the statements, pop *)
Lemma gen_nlist b lv F y jb n' i bf a sc n : GQ_b b -> (bdepth b < F)%nat -> lvok lv sc -> bwf lv b = true -> shape y i bf a sc n ->
  bgen a bf ([] :: sc) n b = (jb, n') ->
  gres (jwalk o F (NList 0 (bnodes b))) y (bprint i jb) i bf a sc n'.
Proof.
  intros Hb Hd Hlv Hwf Hy Eg. destruct F as [|f]; [lia|]. eapply gres_walk; [reflexivity|exact Hy|]. intros x1 H1. cbn [jwalk_node].
  set (x2 := set_scope ([] :: j_scope x1) (j_n x1) x1).
  assert (E2 : jsc_push x1 = Ok (tt, x2)) by reflexivity.
  assert (H2 : shape x2 i bf a ([] :: sc) n /\ j_out x2 = j_out x1).
  { subst x2. destruct H1 as (? & ? & ? & ? & ?). destruct x1; cbn in *. subst. repeat split. }
  destruct H2 as (H2 & O2).
  destruct (Hb lv f x2 jb n' i bf a ([] :: sc) n ltac:(lia) ltac:(discriminate) (lvok_push _ _ Hlv) Hwf H2 Eg) as (sc' & Htl & _ & (x3 & E3 & O3 & (I3 & B3 & A3 & S3 & N3) & C3)).
  unfold gres. erewrite jbind_ok; [|exact E2]. erewrite jbind_ok; [|exact E3].
  exists (set_scope (tl (j_scope x3)) (j_n x3) x3). split; [reflexivity|].
  split; [cbn; rewrite O3, O2; reflexivity|]. split; [|intro HF; exact (C3 HF)].
  unfold shape. cbn [j_indent j_buf j_auto j_scope j_n set_scope]. rewrite S3, Htl. cbn [tl]. repeat split; assumption.
Qed.

(* "{" newline, the block one level deeper, "}" at the statement's level, then the rest *)
Lemma gen_body_tail b lv F st jb n' rest crest i bf a sc n i2 b2 a2 s2 k2 : GQ_b b -> (bdepth b < F)%nat -> lvok lv sc -> bwf lv b = true -> shape st i bf a sc n ->
  bgen a bf ([] :: sc) n b = (jb, n') ->
  (forall y, shape y i bf a sc n' -> gres rest y crest i2 b2 a2 s2 k2) ->
  gres (jtxt t_brace_nl ;;; indent_inc ;;; jwalk o F (NList 0 (bnodes b)) ;;; indent_dec ;;; jindent ;;; jtxt t_rbrace ;;; rest) st
       ([CText t_brace_nl] ++ bprint (S i) jb ++ sp_ind i ++ [CText t_rbrace] ++ crest) i2 b2 a2 s2 k2.
Proof.
  intros Hb Hd Hlv Hwf Hs Eg Hrest. eapply gres_eq.
  - gstep gres_txt. gstep gres_inc. gstep (gen_nlist b lv F). gstep gres_dec. gstep gres_indent. gstep gres_txt. apply Hrest; assumption.
  - chunks_eq.
Qed.

Lemma gen_case_values lv F vs : (forall x, In x vs -> (cdepth x < F)%nat) -> forallb (cwf lv) vs = true -> forall st i b a s n, lvok lv s -> shape st i b a s n ->
  gres (case_values (jwalk o F) (map cnode vs)) st (jk_values i (map (cgen s) vs)) i b a s n.
Proof.
  induction vs as [|v r IH]; intros Hd Hwf st i b a s n Hlv Hs; cbn [map case_values jk_values].
  - apply gres_ret; exact Hs.
  - cbn [forallb] in Hwf. apply andb_prop in Hwf as [Hwv Hwr]. eapply gres_eq.
    + gstep gres_indent. gstep gres_txt. gstep (gres_expr v lv F); [apply Hd; left; reflexivity|]. gstep gres_emit.
      apply IH; [intros y Hy; apply Hd; right; exact Hy|exact Hwr|exact Hlv|assumption].
    + chunks_eq.
Qed.

(* the body of a case: the block one level deeper, then break; at that level *)
Lemma gen_case_body b lv F st jb n' rest crest i bf a sc n i2 b2 a2 s2 k2 : GQ_b b -> (bdepth b < F)%nat -> lvok lv sc -> bwf lv b = true -> shape st i bf a sc n ->
  bgen a bf ([] :: sc) n b = (jb, n') ->
  (forall y, shape y i bf a sc n' -> gres rest y crest i2 b2 a2 s2 k2) ->
  gres (indent_inc ;;; jwalk o F (NList 0 (bnodes b)) ;;; jsln [CText t_break] ;;; indent_dec ;;; rest) st
       (bprint (S i) jb ++ sp_ind (S i) ++ [CText t_break; CText t_nl] ++ crest) i2 b2 a2 s2 k2.
Proof.
  intros Hb Hd Hlv Hwf Hs Eg Hrest. eapply gres_eq.
  - gstep gres_inc. gstep (gen_nlist b lv F). gstep gres_sln. gstep gres_dec. apply Hrest; assumption.
  - chunks_eq.
Qed.

Lemma gres_raw_text t st i bf a sc n : shape st i bf a sc n -> gres (write_raw_text t) st (sprint i (JSAppendLit bf t)) i bf a sc n.
Proof.
  intro H. unfold write_raw_text. eapply gres_eq.
  - gstep gres_indent. eapply gres_bufname; [eassumption|]. apply gres_emit; eassumption.
  - reflexivity.
Qed.

(* raw text and print need nothing of the generator's options (no call name, no message bundle): usable with any jopts,
   e.g. for the resolved items of a translated message (Proofs/MsgThreeSided.v) *)
Lemma sgen_print_raw t : GQ_s (SRaw t).
Proof.
  intros lv f st j sc' n' i bf a sc n Hf Hn Hlv Hwf Hs Eg. rewrite sgen_raw in Eg. inversion Eg; subst. clear Eg.
  destruct f as [|f]; [cbn in Hf; lia|]. rewrite snode_raw. eapply gres_walk; [reflexivity|exact Hs|]. intros st1 H1. cbn [jwalk_node].
  apply gres_raw_text; exact H1.
Qed.
Lemma sgen_print_print e ds : GQ_s (SPrint e ds).
Proof.
  intros lv f st j sc' n' i bf a sc n Hf Hn Hlv Hwf Hs Eg. rewrite sgen_print_eq in Eg. inversion Eg; subst. clear Eg.
  rewrite snode_print. cbn [sprint]. cbn [sdepth] in Hf. destruct Hs as (<- & <- & <- & <- & <-). cbn [swf] in Hwf.
  destruct (cgen_print_dirs_fr o e ds lv f st ltac:(lia) Hwf Hlv) as (stf & E & O & I & B & S & A & N & C). exists stf. repeat split; auto.
Qed.

Lemma sgen_print_let name e : GQ_s (SLet name e).
Proof.
  intros lv f st j sc' n' i bf a sc n Hf Hn Hlv Hwf Hs Eg. rewrite sgen_let in Eg. inversion Eg; subst. clear Eg.
  cbn [sdepth] in Hf. destruct f as [|f]; [lia|]. rewrite snode_let, sprint_var.
  eapply gres_walk; [reflexivity|exact Hs|]. intros st1 (I1 & B1 & A1 & S1 & N1). cbn [jwalk_node].
  (* the value in a block of its own *)
  rewrite swf_let in Hwf. apply andb_prop in Hwf as [Hid Hwe].
  eapply gres_step; [apply (jblock_expr e lv f); [lia|exact Hwe|rewrite S1; exact Hlv]|split; reflexivity|]. rewrite S1.
  destruct sc as [|fr rs]; [congruence|].
  eapply gres_step with (x := jsc_name name (n + 1)) (st2 := set_scope (aset fr name (jsc_name name (n + 1)) :: rs) (n + 1) st1).
  - unfold jsc_makevar, jsc_genname, jsc_bind, jbind, jget, jmod, jret. cbn [j_n j_scope set_scope]. rewrite S1, N1. reflexivity.
  - destruct st1; split; reflexivity.
  - apply gres_sln. destruct st1; cbn in *; repeat split; assumption.
Qed.

(* the new name (not yet bound) is the buffer variable of the body *)
Lemma sgen_print_letc name body : GQ_b body -> GQ_s (SLetC name body).
Proof.
  intros IHb lv f st j sc' n' i bf a sc n Hf Hn Hlv Hwf Hs Eg. rewrite sgen_letc in Eg.
  set (g := jsc_name name (n + 1)) in *.
  destruct (bgen a g ([] :: sc) (n + 1) body) as [jb n1] eqn:E1. inversion Eg; subst. clear Eg.
  rewrite swf_letc in Hwf. apply andb_prop in Hwf as [Hid Hwb].
  rewrite sdepth_letc in Hf. destruct f as [|F]; [lia|]. rewrite snode_letc, sprint_varblock.
  eapply gres_walk; [reflexivity|exact Hs|]. intros st1 (I1 & B1 & A1 & S1 & N1). cbn [jwalk_node].
  set (st2 := set_buf g (set_scope sc (n + 1) st1)).
  assert (E2 : (st0 <~ jget ;;
                 g0 <~ jsc_genname name ;; jmod (set_buf g0) ;;; jsln [CText t_var; CName g0; CText t_eq_empty] ;;;
                 jwalk o F (NList 0 (bnodes body)) ;;; jsc_bind name g0 ;;; jmod (set_buf (j_buf st0))) st1
               = (jsln [CText t_var; CName g; CText t_eq_empty] ;;; jwalk o F (NList 0 (bnodes body)) ;;; jsc_bind name g ;;; jmod (set_buf bf)) st2).
  { unfold jbind at 1. unfold jget. unfold jbind at 1. unfold jsc_genname, jbind, jget, jmod, jret. cbn [j_n j_scope set_scope].
    rewrite S1, N1, B1. reflexivity. }
  assert (H2 : shape st2 i g a sc (n + 1)) by (subst st2; destruct st1; cbn in *; repeat split; assumption).
  assert (Hmain : gres (jsln [CText t_var; CName g; CText t_eq_empty] ;;; jwalk o F (NList 0 (bnodes body)) ;;; jsc_bind name g ;;; jmod (set_buf bf)) st2
                       ((sp_ind i ++ [CText t_var; CName g; CText t_eq_empty] ++ [CText t_nl]) ++ (bprint i jb ++ []))
                       i bf a (jsc_bind_pure sc name g) n').
  { gstep gres_sln. gstep (gen_nlist body lv F); [lia|].
    match goal with H : shape ?x2 _ _ _ _ _ |- gres _ ?x2 _ _ _ _ _ _ => destruct H as (I2 & B2 & A2 & S2 & N2) end.
    destruct sc as [|fr rs]; [congruence|].
    eexists (set_buf bf (set_scope (aset fr name g :: rs) (j_n _) _)). split.
    - unfold jbind at 1. unfold jsc_bind. unfold jbind at 1. unfold jget. rewrite S2. reflexivity.
    - split; [destruct x; reflexivity|]. destruct x; cbn in *. repeat split; try assumption; intros _; reflexivity. }
  destruct Hmain as (stf & E & O & R). exists stf. rewrite E2. split; [exact E|]. split; [|exact R].
  rewrite O. subst st2. destruct st1; cbn. f_equal. f_equal. rewrite app_nil_r. rewrite <- !app_assoc. reflexivity.
Qed.

(* "if (" / "else if (" has been written: the condition, the block, the rest of the chain *)
Lemma gen_cond c th (IHt : GQ_b th) rest (IHr : GQ_e rest) lv F st jt n1 jr n' i bf a sc n :
  (cdepth c < F)%nat -> (bdepth th < F)%nat -> (edepth rest < F)%nat -> sc <> [] -> lvok lv sc ->
  cwf lv c = true -> bwf lv th = true -> ewf lv rest = true -> shape st i bf a sc n ->
  bgen a bf ([] :: sc) n th = (jt, n1) -> egen a bf sc n1 rest = (jr, n') ->
  gres ((jtxt t_if_open ;;; jwalk o F (cnode c) ;;; jtxt t_op_mid1) ;;;
        jtxt t_brace_nl ;;; indent_inc ;;; jwalk o F (NList 0 (bnodes th)) ;;; indent_dec ;;; jindent ;;; jtxt t_rbrace ;;; jif_conds (jwalk o F) false (enodes rest)) st
       ([CText t_if_open] ++ jprint (cgen sc c) ++ [CText t_op_mid1; CText t_brace_nl] ++ bprint (S i) jt ++ sp_ind i ++ [CText t_rbrace] ++ lprint i jr)
       i bf a sc n'.
Proof.
  intros Hdc Hdt Hdr Hn Hlv Hwc Hwt Hwr Hs E1 E2. eapply gres_eq.
  - eapply gres_bind. { gstep gres_txt. gstep (gres_expr c lv F). apply gres_txt; eassumption. } intros x Hx.
    eapply (gen_body_tail th lv F x jt n1); [exact IHt|exact Hdt|exact Hlv|exact Hwt|exact Hx|exact E1|].
    intros y Hy. exact (IHr lv F y jr n' i bf a sc n1 Hdr Hn Hlv Hwr Hy E2).
  - chunks_eq.
Qed.

Lemma sgen_print_if c th (IHt : GQ_b th) rest (IHr : GQ_e rest) : GQ_s (SIf c th rest).
Proof.
  intros lv f st j sc' n' i bf a sc n Hf Hn Hlv Hwf Hs Eg. rewrite sgen_if in Eg.
  destruct (bgen a bf ([] :: sc) n th) as [jt n1] eqn:E1. destruct (egen a bf sc n1 rest) as [jr n2] eqn:E2. inversion Eg; subst. clear Eg.
  rewrite swf_if, !andb_true_iff in Hwf. destruct Hwf as [[Hwc Hwt] Hwr].
  rewrite sdepth_if in Hf. destruct f as [|F]; [lia|]. rewrite snode_if, sprint_if.
  eapply gres_walk; [reflexivity|exact Hs|]. intros st1 H1. cbn [jwalk_node jif_conds].
  eapply gres_eq.
  - gstep gres_indent. eapply gres_bind; [|intros; apply gres_txt; eassumption]. gstep gres_ret.
    apply (gen_cond c th IHt rest IHr lv F _ jt n1 jr n' i bf a sc' n); auto; lia.
  - chunks_eq.
Qed.

Lemma sgen_print_switch v cs : GQ_k cs -> GQ_s (SSwitch v cs).
Proof.
  intros IHk lv f st j sc' n' i bf a sc n Hf Hn Hlv Hwf Hs Eg. rewrite sgen_switch in Eg.
  destruct (kgen a bf sc n cs) as [jc n1] eqn:E1. inversion Eg; subst. clear Eg.
  rewrite swf_switch in Hwf. apply andb_prop in Hwf as [Hwv Hwk].
  rewrite sdepth_switch in Hf. destruct f as [|F]; [lia|]. rewrite snode_switch, sprint_switch.
  eapply gres_walk; [reflexivity|exact Hs|]. intros st1 H1. cbn [jwalk_node].
  eapply gres_eq.
  - gstep gres_indent. gstep gres_txt. gstep (gres_expr v lv F); [lia|]. gstep gres_emit. gstep gres_inc.
    eapply gres_bind; [apply (IHk lv F _ jc n' (S i) bf a sc' n); [lia|exact Hn|exact Hlv|exact Hwk|eassumption|exact E1]|intros ? ?].
    gstep gres_dec. apply gres_sln; eassumption.
  - chunks_eq.
Qed.

(* [if (xLimit > 0) {]  for (..) { var x = item; body }  [} else { ifempty }], as sprint writes it *)
Definition loop_chunks (ind : nat) (hasie : bool) (vd : bstr) (item : list chunk) (vlen vidx : bstr) (body ie : jblk) : list chunk :=
  let ind1 := if hasie then S ind else ind in
  (if hasie then sp_ind ind ++ [CText t_if_open; CName vlen; CText t_gt0] ++ [CText t_nl] else [])
  ++ (sp_ind ind1 ++ [CText t_for_open; CName vidx; CText t_eq0_semi; CName vidx; CText t_lt; CName vlen; CText t_semi_sp; CName vidx; CText t_plusplus] ++ [CText t_nl])
  ++ (sp_ind (S ind1) ++ ([CText t_var; CName vd; CText t_eq] ++ item ++ [CText t_semi]) ++ [CText t_nl])
  ++ bprint (S ind1) body
  ++ (sp_ind ind1 ++ [CText t_rbrace] ++ [CText t_nl])
  ++ (if hasie then (sp_ind ind ++ [CText t_else_block] ++ [CText t_nl]) ++ bprint (S ind) ie ++ (sp_ind ind ++ [CText t_rbrace] ++ [CText t_nl]) else []).
Lemma sprint_foreach ind vd vlist vlen vidx e body hasie ie : sprint ind (JSForeach vd vlist vlen vidx e body hasie ie)
  = (sp_ind ind ++ ([CText t_var; CName vlist; CText t_eq] ++ jprint e ++ [CText t_semi]) ++ [CText t_nl])
    ++ (sp_ind ind ++ [CText t_var; CName vlen; CText t_eq; CName vlist; CText t_length] ++ [CText t_nl])
    ++ loop_chunks ind hasie vd [CName vlist; CText t_lbrack; CName vidx; CText t_rbrack] vlen vidx body ie.
Proof. reflexivity. Qed.
Lemma sprint_forrange ind vd vinit vstep vlen vidx ei es el body hasie ie : sprint ind (JSForRange vd vinit vstep vlen vidx ei es el body hasie ie)
  = (sp_ind ind ++ ([CText t_var; CName vinit; CText t_eq] ++ jprint ei ++ [CText t_semi]) ++ [CText t_nl])
    ++ (sp_ind ind ++ ([CText t_var; CName vstep; CText t_eq] ++ jprint es ++ [CText t_semi]) ++ [CText t_nl])
    ++ (sp_ind ind ++ ([CText t_var; CName vlen; CText t_count1] ++ jprint el ++ [CText t_minus; CName vinit; CText t_count2; CName vstep; CText t_count3]) ++ [CText t_nl])
    ++ loop_chunks ind hasie vd [CName vinit; CText t_plus; CName vidx; CText t_times; CName vstep] vlen vidx body ie.
Proof. reflexivity. Qed.

(* the for statement with its body at one indentation, leaving the loop's frame, then the rest *)
Lemma gen_for_body body (IHb : GQ_b body) lv F st i bf a fr sc m jb n1 vd item vlen vidx rest crest i2 b2 a2 s2 k2 :
  (bdepth body < F)%nat -> lvok lv (fr :: sc) -> bwf lv body = true -> shape st i bf a (fr :: sc) m ->
  bgen a bf ([] :: fr :: sc) m body = (jb, n1) ->
  (forall y, shape y i bf a sc n1 -> gres rest y crest i2 b2 a2 s2 k2) ->
  gres (jsln [CText t_for_open; CName vidx; CText t_eq0_semi; CName vidx; CText t_lt; CName vlen; CText t_semi_sp; CName vidx; CText t_plusplus] ;;;
        indent_inc ;;; jsln ([CText t_var; CName vd; CText t_eq] ++ item ++ [CText t_semi]) ;;;
        jwalk o F (NList 0 (bnodes body)) ;;; indent_dec ;;; jsln [CText t_rbrace] ;;; jsc_pop ;;; rest) st
       ((sp_ind i ++ [CText t_for_open; CName vidx; CText t_eq0_semi; CName vidx; CText t_lt; CName vlen; CText t_semi_sp; CName vidx; CText t_plusplus] ++ [CText t_nl])
        ++ (sp_ind (S i) ++ ([CText t_var; CName vd; CText t_eq] ++ item ++ [CText t_semi]) ++ [CText t_nl])
        ++ bprint (S i) jb ++ (sp_ind i ++ [CText t_rbrace] ++ [CText t_nl]) ++ crest) i2 b2 a2 s2 k2.
Proof.
  intros Hd Hlv Hwf Hs Eg Hrest. eapply gres_eq.
  - gstep gres_sln. gstep gres_inc. gstep gres_sln. gstep (gen_nlist body lv F). gstep gres_dec. gstep gres_sln. gstep gres_pop.
    apply Hrest; assumption.
  - chunks_eq.
Qed.

Lemma gen_loop body (IHb : GQ_b body) ie (IHi : GQ_b ie) lv lv' F (hasie : bool) st i bf a fr sc m vd item vlen vidx jb n1 ji n2 :
  (bdepth body < F)%nat -> (bdepth ie < F)%nat -> lvok lv' (fr :: sc) -> lvok lv sc -> bwf lv' body = true -> bwf lv ie = true ->
  shape st i bf a (fr :: sc) m ->
  bgen a bf ([] :: fr :: sc) m body = (jb, n1) -> (if hasie then bgen a bf ([] :: sc) n1 ie else (JBNil, n1)) = (ji, n2) ->
  gres (visit_loop (jwalk o F) (NList 0 (bnodes body)) (if hasie then Some (NList 0 (bnodes ie)) else None) vd item vlen vidx) st
       (loop_chunks i hasie vd item vlen vidx jb ji) i bf a sc n2.
Proof.
  intros Hdb Hdi Hlv' Hlv Hwb Hwi Hs E1 E2. unfold visit_loop, loop_chunks. destruct hasie; cbn zeta iota; eapply gres_eq.
  - eapply gres_bind. { gstep gres_sln. apply gres_inc; eassumption. } intros x Hx.
    apply (gen_for_body body IHb lv' F x (S i) bf a fr sc m jb n1); auto. intros y Hy.
    gstep gres_dec. gstep gres_sln. gstep gres_inc. gstep (gen_nlist ie lv F). gstep gres_dec. apply gres_sln; eassumption.
  - chunks_eq.
  - inversion E2; subst. gstep gres_ret.
    apply (gen_for_body body IHb lv' F _ i bf a fr sc m jb n2); auto. intros y Hy. apply gres_ret; exact Hy.
  - chunks_eq.
Qed.

Lemma push_for_each_eq x st :
  jsc_push_for_each x st
  = Ok ((jsc_name x (j_n st + 1), jsc_name (x ++ t_list) (j_n st + 1), jsc_name (x ++ t_limit) (j_n st + 1), jsc_name (x ++ t_index) (j_n st + 1)),
        set_scope (loop_frame x (j_n st + 1) :: j_scope st) (j_n st + 1) st).
Proof.
  unfold jsc_push_for_each, jbind, jget, jmod, jret, loop_frame, jsc_name. rewrite <- !app_assoc. reflexivity.
Qed.
Lemma push_for_range_eq x st :
  jsc_push_for_range x st
  = Ok ((jsc_name x (j_n st + 1), jsc_name (x ++ t_init) (j_n st + 1), jsc_name (x ++ t_step) (j_n st + 1), jsc_name (x ++ t_limit) (j_n st + 1),
         jsc_name (x ++ t_index) (j_n st + 1)),
        set_scope (loop_frame x (j_n st + 1) :: j_scope st) (j_n st + 1) st).
Proof.
  unfold jsc_push_for_range, jbind, jget, jmod, jret, loop_frame, jsc_name. rewrite <- !app_assoc. reflexivity.
Qed.
Lemma shape_loop_frame st i bf a sc n x : shape st i bf a sc n ->
  shape (set_scope (loop_frame x (n + 1) :: sc) (n + 1) st) i bf a (loop_frame x (n + 1) :: sc) (n + 1).
Proof. intros (? & ? & ? & ? & ?). destruct st; cbn in *; repeat split; assumption. Qed.

Lemma sgen_print_foreach x e body (IHb : GQ_b body) hasie ie (IHi : GQ_b ie) : GQ_s (SFor x e body hasie ie).
Proof.
  intros lv f st j sc' n' i bf a sc n Hf Hn Hlv Hwf Hs Eg. rewrite sgen_for in Eg.
  destruct (bgen a bf ([] :: loop_frame x (n + 1) :: sc) (n + 1) body) as [jb n1] eqn:E1.
  destruct (if hasie then bgen a bf ([] :: sc) n1 ie else (JBNil, n1)) as [ji n2] eqn:E2. inversion Eg; subst. clear Eg.
  rewrite swf_for, !andb_true_iff in Hwf. destruct Hwf as [[[Hid Hwe] Hwb] Hwi].
  rewrite sdepth_for in Hf. destruct f as [|F]; [lia|]. assert (Hd : (cdepth e < F /\ bdepth body < F /\ bdepth ie < F)%nat) by lia. destruct Hd as (Hde & Hdb & Hdi).
  rewrite snode_for, sprint_foreach.
  eapply gres_walk; [reflexivity|exact Hs|]. intros st1 H1. cbn [jwalk_node]. rewrite for_dispatch. unfold visit_foreach.
  pose proof H1 as (I1 & B1 & A1 & S1 & N1).
  eapply gres_step; [apply (jblock_expr e lv F st1); [exact Hde|exact Hwe|rewrite S1; exact Hlv]|split; reflexivity|]. rewrite S1.
  eapply gres_step; [apply push_for_each_eq|destruct st1; split; reflexivity|]. rewrite S1, N1. cbn iota beta.
  pose proof (shape_loop_frame st1 i bf a sc' n x H1) as H2.
  gstep gres_sln. gstep gres_sln.
  eapply (gen_loop body IHb ie IHi lv (x :: lv) F hasie); [exact Hdb|exact Hdi|apply lvok_frame; assumption|exact Hlv|exact Hwb|exact Hwi|eassumption|exact E1|exact E2].
Qed.

(* the arguments of range() as the generator orders them, on nodes and on MiniJS expressions *)
Lemma range_args_nodes lv sc a1 rest F : (length rest <= 2)%nat -> cwf lv a1 = true -> forallb (cwf lv) rest = true ->
  (Nat.max (cdepth a1) (cdepths rest) < F)%nat ->
  exists ci cl cs,
    match cnode a1 :: map cnode rest with
    | [l] => Some (NInt 0 0, l, NInt 0 1) | [i; l] => Some (i, l, NInt 0 1) | [i; l; s] => Some (i, l, s) | _ => None
    end = Some (cnode ci, cnode cl, cnode cs)
    /\ range_args (JENum 0) (JENum 1) (map (cgen sc) (a1 :: rest)) = Some (cgen sc ci, cgen sc cl, cgen sc cs)
    /\ cwf lv ci = true /\ cwf lv cl = true /\ cwf lv cs = true
    /\ (cdepth ci < F)%nat /\ (cdepth cl < F)%nat /\ (cdepth cs < F)%nat.
Proof.
  intros Hlen W1 Wr Hd. assert (Hp : (1 <= cdepth a1)%nat) by (destruct a1; cbn [cdepth]; lia).
  destruct (range_args_some (CInt 0) (CInt 1) (a1 :: rest) ltac:(cbn [length]; lia)) as ([[ci cl] cs] & Hra). exists ci, cl, cs.
  split; [change (range_args (cnode (CInt 0)) (cnode (CInt 1)) (map cnode (a1 :: rest)) = Some (cnode ci, cnode cl, cnode cs)); rewrite range_args_map, Hra; reflexivity|].
  split; [rewrite (range_args_map (cgen sc) (CInt 0) (CInt 1) (a1 :: rest) : range_args (JENum 0) (JENum 1) _ = _), Hra; reflexivity|].
  destruct (range_args_all (fun e => cwf lv e = true /\ (cdepth e < F)%nat) _ _ _ _ _ _ Hra) as ((? & ?) & (? & ?) & (? & ?)); auto 10.
  - split; [reflexivity|cbn [cdepth]; lia].
  - split; [reflexivity|cbn [cdepth]; lia].
  - intros y [<-|Hy]; [split; [exact W1|lia]|]. split; [exact (proj1 (forallb_forall _ _) Wr y Hy)|]. pose proof (cdepths_le y rest Hy). lia.
Qed.

Lemma sgen_print_forrange x a1 rest body (IHb : GQ_b body) hasie ie (IHi : GQ_b ie) : GQ_s (SForRange x a1 rest body hasie ie).
Proof.
  intros lv f st j sc' n' i bf a sc n Hf Hn Hlv Hwf Hs Eg. rewrite sgen_forrange in Eg.
  rewrite swf_forrange, !andb_true_iff in Hwf. destruct Hwf as [[[[[Hid Hlen] Hw1] Hwr] Hwb] Hwi].
  apply Nat.leb_le in Hlen.
  rewrite sdepth_forrange in Hf. destruct f as [|F]; [lia|].
  assert (Hd : (Nat.max (cdepth a1) (cdepths rest) < F /\ bdepth body < F /\ bdepth ie < F)%nat) by lia. destruct Hd as (Hda & Hdb & Hdi).
  destruct (range_args_nodes lv sc a1 rest F Hlen Hw1 Hwr Hda) as (ci & cl & cs & Hnodes & Hra & Wi & Wl & Ws & Di & Dl & Ds).
  rewrite Hra in Eg.
  destruct (bgen a bf ([] :: loop_frame x (n + 1) :: sc) (n + 1) body) as [jb n1] eqn:E1.
  destruct (if hasie then bgen a bf ([] :: sc) n1 ie else (JBNil, n1)) as [ji n2] eqn:E2. inversion Eg; subst. clear Eg.
  rewrite snode_forrange, sprint_forrange.
  eapply gres_walk; [reflexivity|exact Hs|]. intros st1 H1. cbn [jwalk_node].
  replace (bstr_eqb jn_range jn_range) with true by reflexivity. unfold visit_for_range. rewrite Hnodes.
  pose proof H1 as (I1 & B1 & A1 & S1 & N1).
  eapply gres_step; [apply (jblock_expr ci lv F st1); [exact Di|exact Wi|rewrite S1; exact Hlv]|split; reflexivity|].
  eapply gres_step; [apply (jblock_expr cs lv F st1); [exact Ds|exact Ws|rewrite S1; exact Hlv]|split; reflexivity|].
  eapply gres_step; [apply (jblock_expr cl lv F st1); [exact Dl|exact Wl|rewrite S1; exact Hlv]|split; reflexivity|]. rewrite S1.
  eapply gres_step; [apply push_for_range_eq|destruct st1; split; reflexivity|]. rewrite S1, N1. cbn iota beta.
  pose proof (shape_loop_frame st1 i bf a sc' n x H1) as H2.
  gstep gres_sln. gstep gres_sln. gstep gres_sln.
  eapply (gen_loop body IHb ie IHi lv (x :: lv) F hasie); [exact Hdb|exact Hdi|apply lvok_frame; assumption|exact Hlv|exact Hwb|exact Hwi|eassumption|exact E1|exact E2].
Qed.

Lemma sgen_print_css e sfx : GQ_s (SCss e sfx).
Proof.
  intros lv f st j sc' n' i bf a sc n Hf Hn Hlv Hwf Hs Eg. rewrite sgen_css in Eg. inversion Eg; subst. clear Eg.
  rewrite sdepth_css in Hf. destruct f as [|F]; [lia|]. rewrite snode_css, sprint_css.
  eapply gres_walk; [reflexivity|exact Hs|]. intros st1 H1. cbn [jwalk_node].
  destruct e as [x|]; cbn [swf] in Hwf.
  - eapply gres_bind; [|intros y Hy; apply gres_raw_text; exact Hy].
    eapply gres_eq.
    + gstep gres_indent. eapply gres_bufname; [eassumption|]. gstep gres_emit. gstep (gres_expr x lv F); [lia|]. apply gres_emit; eassumption.
    + unfold sp_ind. chunks_eq.
  - eapply gres_eq; [eapply gres_bind; [apply gres_ret; exact H1|intros y Hy; apply gres_raw_text; exact Hy]|reflexivity].
Qed.

Hypothesis HCN : cn_ok.
(* no translation bundle: a message is rendered from its source *)
Hypothesis HNB : o_msgs o = None.

Lemma sgen_print_call name d ps : GQ_p ps -> GQ_s (SCall name d ps).
Proof.
  intros IHp lv f st j sc' n' i bf a sc n Hf Hn Hlv Hwf Hs Eg. rewrite sgen_call in Eg.
  destruct (pgen a sc n ps) as [jps n1] eqn:Ep. inversion Eg; subst. clear Eg.
  rewrite sdepth_call in Hf. destruct f as [|F]; [lia|]. rewrite snode_call, sprint_call.
  eapply gres_walk; [reflexivity|exact Hs|]. intros st1 H1. pose proof H1 as (I1 & B1 & A1 & S1 & N1). cbn [jwalk_node].
  rewrite swf_call in Hwf. apply andb_prop in Hwf as [Hwd Hwp].
  unfold visit_call.
  assert (E0 : (match cdata_node d with
                | Some dn => jblock (jwalk o F) dn
                | None => jret (if cdata_all d then [CText t_opt_data] else [CText t_empty_obj])
                end) st1 = Ok (jd_print (dgen sc' d), st1)).
  { destruct d as [| |e]; cbn [cdata_node cdata_all dgen jd_print]; try reflexivity.
    rewrite <- S1. apply (jblock_expr e lv); [cbn [ddepth] in Hf; lia|exact Hwd|rewrite S1; exact Hlv]. }
  eapply gres_step; [exact E0|split; reflexivity|].
  (* the parameters: the content blocks are written now, the object literal is kept for the call line *)
  assert (E1 : exists st2, (match pnodes ps with
                | [] => jret (jd_print (dgen sc' d))
                | _ => ps0 <~ jcall_params (jwalk o F) true (pnodes ps) ([CText t_augment] ++ jd_print (dgen sc' d) ++ [CText t_augment_mid]) ;;
                       jret (ps0 ++ [CText t_augment_end])
                end) st1 = Ok (jcall_arg (dgen sc' d) (jp_args jps), st2)
               /\ j_out st2 = rev (pprint i jps) ++ j_out st1 /\ shape st2 i bf a sc' n'
               /\ (c04_imp_free o -> j_called st2 = j_called st1)).
  { destruct (IHp lv F st1 jps n' i bf a sc' n true ([CText t_augment] ++ jd_print (dgen sc' d) ++ [CText t_augment_mid]) ltac:(lia) Hn Hlv Hwp H1 Ep)
      as (st2 & E2 & O2 & H2 & C2).
    destruct ps as [|k e r|k body r].
    - rewrite pgen_nil in Ep. inversion Ep; subst. exists st1. split; [reflexivity|]. split; [reflexivity|]. split; [exact H1|reflexivity].
    - exists st2. rewrite pnodes_val. cbn iota. rewrite <- (pnodes_val k e r). erewrite jbind_ok; [|exact E2]. split; [|split; [assumption|split; assumption]].
      cbn [jret]. f_equal. f_equal. rewrite pgen_val in Ep. destruct (pgen a sc' n r) as [jr n2]. inversion Ep; subst.
      cbn [jp_args jcall_arg]. repeat rewrite <- app_assoc. reflexivity.
    - exists st2. rewrite pnodes_cont. cbn iota. rewrite <- (pnodes_cont k body r). erewrite jbind_ok; [|exact E2]. split; [|split; [assumption|split; assumption]].
      cbn [jret]. f_equal. f_equal. rewrite pgen_cont in Ep. destruct (bgen a (jsc_name t_param (n + 1)) ([] :: sc') (n + 1) body) as [jb n2].
      destruct (pgen a sc' n2 r) as [jr n3]. inversion Ep; subst. cbn [jp_args jcall_arg]. repeat rewrite <- app_assoc. reflexivity. }
  destruct E1 as (st2 & E1 & O2 & H2 & C2).
  rewrite (HCN name).
  assert (Hfin : gres (bn <~ bufname ;; jsln (bn ++ [CText t_pluseq; CName name; CText t_lpar] ++ jcall_arg (dgen sc' d) (jp_args jps) ++ [CText t_call_tail]) ;;;
                       note_called name (fmt_chunks (fmt_call_text (o_fmt o)) name)) st2
                      (sp_ind i ++ ([CName bf; CText t_pluseq; CName name; CText t_lpar] ++ jcall_arg (dgen sc' d) (jp_args jps) ++ [CText t_call_tail]) ++ [CText t_nl])
                      i bf a sc' n').
  { apply (gres_bufname _ st2 _ i bf a sc' n' _ _ _ _ _ H2).
    eapply gres_eq; [gstep gres_sln; apply gres_note; eassumption|rewrite app_nil_r; reflexivity]. }
  destruct Hfin as (stf & Ef & Of & Hf' & Cf).
  exists stf. erewrite jbind_ok; [|exact E1]. split; [exact Ef|]. split; [|split; [exact Hf'|intro HF; rewrite (Cf HF); exact (C2 HF)]].
  rewrite Of, O2. rewrite (rev_app_distr (pprint i jps)). apply app_assoc.
Qed.

Lemma sprint_seq ind jb : sprint ind (JSSeq jb) = bprint ind jb. Proof. reflexivity. Qed.
Lemma swf_msg lv body : swf lv (SMsg body) = msg_ok body && bwf lv body. Proof. reflexivity. Qed.
Lemma msg_size_mnodes body : msg_ok body = true -> msg_size (mnodes body) = S (length (mnodes body)).
Proof.
  unfold msg_size. intro Hm. f_equal. induction body as [|s r IH]; [reflexivity|]. cbn [msg_ok] in Hm. apply andb_prop in Hm as [Hs Hr].
  cbn [mnodes fold_right length]. rewrite (IH Hr). destruct s; try discriminate Hs; reflexivity.
Qed.
(* visitMsgNode's loop over the children of a message without plural: the statements, one after the other *)
Lemma gen_msg_children w body : msg_ok body = true -> forall fuel st, (length (mnodes body) < fuel)%nat ->
  jmsg_children w fuel (mnodes body) st = jwalk_list w (bnodes body) st.
Proof.
  induction body as [|s r IH]; intros Hm fuel st Hf; (destruct fuel as [|f]; [cbn [length] in Hf; lia|]); [reflexivity|].
  cbn [msg_ok] in Hm. apply andb_prop in Hm as [Hs Hr]. cbn [mnodes bnodes length] in *. fold bnodes.
  assert (Hstep : forall x, jmsg_children w (S f) (x :: mnodes r) st = (w (snode s) ;;; jmsg_children w f (mnodes r)) st ->
                  jmsg_children w (S f) (x :: mnodes r) st = jwalk_list w (snode s :: bnodes r) st).
  { intros x Hx. rewrite Hx. cbn [jwalk_list]. unfold jbind. destruct (w (snode s) st) as [[u st1]| | | | |]; try reflexivity. apply IH; [exact Hr|lia]. }
  destruct s; try discriminate Hs; apply Hstep; reflexivity.
Qed.

(* one body of a plural: visitMsgNode's loop over raw text and placeholders = the statements, one after the other *)
Lemma gen_qbody b lv f F st i bf a sc n jb n1 : GQ_b b ->
  msg_ok b = true -> bwf lv b = true -> (bdepth b <= F)%nat -> (length (mnodes b) < f)%nat ->
  sc <> [] -> lvok lv sc -> shape st i bf a sc n -> bgen a bf sc n b = (jb, n1) ->
  gres (jmsg_children (jwalk o F) f (mnodes b)) st (bprint i jb) i bf a sc n1.
Proof.
  intros Hb Hm Hw Hd Hl Hn Hlv Hs Eb.
  destruct (Hb lv F st jb n1 i bf a sc n Hd Hn Hlv Hw Hs Eb) as (sc' & _ & Hsame & G).
  rewrite (Hsame Hm) in G. destruct G as (z3 & E3 & R3). exists z3. rewrite (gen_msg_children (jwalk o F) b Hm f st Hl). split; [exact E3|exact R3].
Qed.

Lemma sgen_print_msg body : GQ_b body -> GQ_s (SMsg body).
Proof.
  intros IHb lv f st j sc' n' i bf a sc n Hf Hn Hlv Hwf Hs Eg. rewrite sgen_msg in Eg.
  destruct (bgen a bf sc n body) as [jb n1] eqn:E1. inversion Eg; subst. clear Eg.
  rewrite swf_msg in Hwf. apply andb_prop in Hwf as [Hm Hwb].
  rewrite sdepth_msg in Hf. destruct f as [|F]; [lia|]. rewrite snode_msg, sprint_seq.
  eapply gres_walk; [reflexivity|exact Hs|]. intros st1 H1. cbn [jwalk_node]. unfold visit_msg. rewrite HNB.
  apply (gen_qbody body lv _ F st1 i bf a sc' n jb n' IHb Hm Hwb); auto; [lia|]. rewrite (msg_size_mnodes body Hm). lia.
Qed.

(* the depth of the plural's value and of its bodies, apart (less than sdepth asks) *)
Lemma sgen_print_msgpl pn v q : GQ_q q -> forall lv F st j sc' n' i bf a sc n,
  (cdepth v < F)%nat -> (qdepth q <= F)%nat -> sc <> [] -> lvok lv sc -> swf lv (SMsgPl pn v q) = true -> shape st i bf a sc n ->
  sgen a bf sc n (SMsgPl pn v q) = (j, (sc', n')) ->
  gres (jwalk o (S F) (snode (SMsgPl pn v q))) st (sprint i j) i bf a sc' n'.
Proof.
  intros IHq lv F st j sc' n' i bf a sc n Hdv Hdq Hn Hlv Hwf Hs Eg. rewrite sgen_msgpl in Eg.
  destruct (qgen a bf sc n q) as [jk n1] eqn:E1. inversion Eg; subst. clear Eg.
  rewrite swf_msgpl in Hwf. apply andb_prop in Hwf as [Hwv Hwq].
  rewrite snode_msgpl, sprint_plural.
  eapply gres_walk; [reflexivity|exact Hs|]. intros st1 H1. cbn [jwalk_node]. unfold visit_msg. rewrite HNB.
  set (k := (4 + c04_gosum (qcnodes q) + c04_gosum (qdnodes q) + 0)%nat).
  assert (Hsz : msg_size [NMsgPlural 0 pn (cnode v) (qcnodes q) (qdnodes q)] = S k) by reflexivity.
  assert (Hk : (c04_qlen q < k)%nat) by (subst k; apply c04_qlen_gosum).
  rewrite Hsz. clearbody k. cbn [jmsg_children].
  eapply gres_eq.
  - eapply gres_bind; [|intros z0 Z0; destruct k as [|k']; [lia|]; cbn [jmsg_children]; apply gres_ret; exact Z0].
    gstep gres_indent. gstep gres_txt. gstep (gres_expr v lv F). gstep gres_emit. gstep gres_inc.
    apply (IHq lv k F _ jk n' (S i) bf a sc' n (indent_dec ;;; jsln [CText t_rbrace]) (sp_ind i ++ [CText t_rbrace] ++ [CText t_nl]) i bf a sc' n');
      [exact Hdq|exact Hk|exact Hn|exact Hlv|exact Hwq|assumption|exact E1|].
    intros y Hy. eapply gres_eq; [gstep gres_dec; apply gres_sln; eassumption|reflexivity].
  - chunks_eq.
Qed.

Lemma sgen_print_bcons s (IHs : GQ_s s) r (IHr : GQ_b r) : GQ_b (BCons s r).
Proof.
  intros lv f st jb n' i bf a sc n Hf Hn Hlv Hwf Hs Eg. rewrite bgen_cons in Eg. rewrite bdepth_cons in Hf.
  destruct (sgen a bf sc n s) as [j [sc1 n1]] eqn:E1. destruct (bgen a bf sc1 n1 r) as [jr n2] eqn:E2. inversion Eg; subst. clear Eg.
  rewrite bwf_cons in Hwf. apply andb_prop in Hwf as [Hws Hwr].
  destruct (sgen_scope _ _ _ _ _ _ _ _ E1 Hn) as [Htl1 Hn1].
  pose proof (lvok_after lv _ _ _ _ _ _ _ _ (swf_binder lv s Hws) E1 Hlv) as Hlv1.
  rewrite bnodes_cons, bprint_cons. cbn [jwalk_list].
  destruct (IHs lv f st j sc1 n1 i bf a sc n ltac:(lia) Hn Hlv Hws Hs E1) as (x & Ex & Ox & Hx & Cx).
  destruct (IHr lv f x jr n' i bf a sc1 n1 ltac:(lia) Hn1 Hlv1 Hwr Hx E2) as (sc' & Htl & Hsm & (y & Ey & Oy & Hy & Cy)).
  exists sc'. split; [congruence|]. split.
  { (* raw text, print and call bind nothing *)
    intro Hm. cbn [msg_ok] in Hm. apply andb_prop in Hm as [Hms Hmr]. rewrite (Hsm Hmr).
    destruct s; try discriminate Hms.
    - rewrite sgen_raw in E1. inversion E1; reflexivity.
    - rewrite sgen_print_eq in E1. inversion E1; reflexivity.
    - rewrite sgen_call in E1. destruct (pgen a sc n ps) as [jps np]. inversion E1; reflexivity. }
  exists y. rewrite (jbind_ok _ _ _ _ _ Ex). split; [exact Ey|].
  split; [rewrite Oy, Ox, rev_app_distr, app_assoc; reflexivity|]. split; [exact Hy|intro HF; rewrite (Cy HF); exact (Cx HF)].
Qed.

Lemma sgen_print_elif c th (IHt : GQ_b th) rest (IHr : GQ_e rest) : GQ_e (EElif c th rest).
Proof.
  intros lv F st jl n' i bf a sc n Hf Hn Hlv Hwf Hs Eg. rewrite egen_elif in Eg. rewrite edepth_elif in Hf.
  destruct (bgen a bf ([] :: sc) n th) as [jt n1] eqn:E1. destruct (egen a bf sc n1 rest) as [jr n2] eqn:E2. inversion Eg; subst. clear Eg.
  rewrite ewf_elif, !andb_true_iff in Hwf. destruct Hwf as [[Hwc Hwt] Hwr].
  rewrite enodes_elif, lprint_elif. cbn [jif_conds]. eapply gres_eq.
  - gstep gres_txt. apply (gen_cond c th IHt rest IHr lv F _ jt n1 jr n' i bf a sc n); auto; lia.
  - chunks_eq.
Qed.

Lemma sgen_print_kcase v vs b (IHb : GQ_b b) rest (IHr : GQ_k rest) : GQ_k (KCase v vs b rest).
Proof.
  intros lv F st jk n' i bf a sc n Hf Hn Hlv Hwf Hs Eg. rewrite kgen_case in Eg. rewrite kdepth_case in Hf.
  destruct (bgen a bf ([] :: sc) n b) as [jb n1] eqn:E1. destruct (kgen a bf sc n1 rest) as [jr n2] eqn:E2. inversion Eg; subst. clear Eg.
  rewrite kwf_case in Hwf. apply andb_prop in Hwf as [Hwf Hwr]. apply andb_prop in Hwf as [Hwf Hwb].
  rewrite knodes_case, kprint_case. cbn [jswitch_cases].
  change (cnode v :: map cnode vs) with (map cnode (v :: vs)). change (cgen sc v :: map (cgen sc) vs) with (map (cgen sc) (v :: vs)).
  eapply gres_eq.
  - eapply gres_bind; [apply (gen_case_values lv F (v :: vs)); [|exact Hwf|exact Hlv|exact Hs]|intros ? ?].
    { intros x [<-|Hx]; [lia|]. pose proof (cdepths_le x vs Hx). lia. }
    cbn [map]. gstep gres_ret.
    eapply (gen_case_body b lv F _ jb n1); [exact IHb|lia|exact Hlv|exact Hwb|eassumption|exact E1|].
    intros y Hy. apply (IHr lv F y jr n' i bf a sc n1); [lia|exact Hn|exact Hlv|exact Hwr|exact Hy|exact E2].
  - chunks_eq.
Qed.

Lemma sgen_print_pval k e r : GQ_p r -> GQ_p (PVal k e r).
Proof.
  intros IHr lv F st jps n' i bf a sc n first acc Hf Hn Hlv Hwf Hs Eg. rewrite pgen_val in Eg.
  destruct (pgen a sc n r) as [jr n1] eqn:E1. inversion Eg; subst. clear Eg.
  rewrite pwf_val in Hwf. apply andb_prop in Hwf as [Hwe Hwr]. rewrite pdepth_val in Hf. rewrite pnodes_val, jcall_params_val.
  pose proof Hs as (I1 & B1 & A1 & S1 & N1).
  erewrite jbind_ok; [|apply (jblock_expr e lv); [lia|exact Hwe|rewrite S1; exact Hlv]]. rewrite S1.
  destruct (IHr lv F st jr n' i bf a sc n false ((if first then acc else acc ++ [CText t_comma_sp]) ++ [CName k; CText t_colon_sp] ++ jprint (cgen sc e))
              ltac:(lia) Hn Hlv Hwr Hs E1) as (stf & Ef & Of & Hf' & Cf).
  exists stf. split; [|split; [exact Of|split; [exact Hf'|exact Cf]]]. rewrite Ef. f_equal. f_equal.
  cbn [jp_args jps_print]. destruct first; repeat rewrite <- app_assoc; reflexivity.
Qed.

Lemma sgen_print_pcont k body (IHb : GQ_b body) r (IHr : GQ_p r) : GQ_p (PCont k body r).
Proof.
  intros lv F st jps n' i bf a sc n first acc Hf Hn Hlv Hwf Hs Eg. rewrite pgen_cont in Eg.
  set (g := jsc_name t_param (n + 1)) in *.
  destruct (bgen a g ([] :: sc) (n + 1) body) as [jb n1] eqn:E1. destruct (pgen a sc n1 r) as [jr n2] eqn:E2. inversion Eg; subst. clear Eg.
  rewrite pwf_cont in Hwf. apply andb_prop in Hwf as [Hwb Hwr]. rewrite pdepth_cont in Hf. rewrite pnodes_cont, jcall_params_cont.
  pose proof Hs as (I1 & B1 & A1 & S1 & N1). rewrite N1, S1, B1. fold g.
  set (st2 := set_buf g (set_scope sc (n + 1) st)).
  assert (H2 : shape st2 i g a sc (n + 1)) by (subst st2; destruct st; cbn in *; repeat split; assumption).
  assert (O2 : j_out st2 = j_out st) by (subst st2; destruct st; reflexivity).
  destruct (gres_sln [CText t_var; CName g; CText t_eq_empty] st2 _ _ _ _ _ H2) as (x1 & Ex1 & Ox1 & Hx1 & Cx1).
  erewrite jbind_ok; [|exact Ex1].
  destruct (gen_nlist body lv F x1 jb n1 i g a sc (n + 1) IHb ltac:(lia) Hlv Hwb Hx1 E1) as (x2 & Ex2 & Ox2 & Hx2 & Cx2).
  erewrite jbind_ok; [|exact Ex2].
  set (x3 := set_buf bf x2).
  assert (Ex3 : jmod (set_buf bf) x2 = Ok (tt, x3)) by reflexivity.
  assert (Hx3 : shape x3 i bf a sc n1) by (subst x3; destruct Hx2 as (? & ? & ? & ? & ?); destruct x2; cbn in *; repeat split; assumption).
  assert (Ox3 : j_out x3 = j_out x2) by (subst x3; destruct x2; reflexivity).
  erewrite jbind_ok; [|exact Ex3].
  destruct (IHr lv F x3 jr n' i bf a sc n1 false ((if first then acc else acc ++ [CText t_comma_sp]) ++ [CName k; CText t_colon_sp; CName g])
              ltac:(lia) Hn Hlv Hwr Hx3 E2) as (stf & Ef & Of & Hf' & Cf).
  exists stf. split; [|split; [|split; [exact Hf'|intro HF; rewrite (Cf HF); transitivity (j_called x2); [reflexivity|rewrite (Cx2 HF), (Cx1 HF); reflexivity]]]].
  - rewrite Ef. f_equal. f_equal. cbn [jp_args jps_print jprint]. destruct first; repeat rewrite <- app_assoc; reflexivity.
  - rewrite Of, Ox3, Ox2, Ox1, O2, pprint_cont. rewrite !rev_app_distr. repeat rewrite <- app_assoc. reflexivity.
Qed.

Lemma sgen_print_qcase z b (IHb : GQ_b b) r (IHr : GQ_q r) : GQ_q (QCase z b r).
Proof.
  intros lv f F st jk n' i bf a sc n rest crest i2 b2 a2 s2 k2 Hd Hl Hn Hlv Hwf Hs Eg Hrest. rewrite qgen_case in Eg.
  destruct (bgen a bf sc n b) as [jb n1] eqn:E1. destruct (qgen a bf sc n1 r) as [jr n2] eqn:E2. inversion Eg; subst. clear Eg.
  rewrite qwf_case, !andb_true_iff in Hwf. destruct Hwf as [[Hm Hwb] Hwr].
  rewrite qdepth_case in Hd. cbn [c04_qlen] in Hl.
  rewrite qcnodes_case, qdnodes_case, kprint_nb_case. cbn [c04_plgo]. fold (c04_plgo (jmsg_children (jwalk o F) f)).
  apply gres_assoc. eapply gres_eq.
  - eapply gres_bind.
    { unfold plural_case_body. gstep gres_sln. gstep gres_inc. gstep (gen_qbody b lv f F); [lia|lia|]. gstep gres_sln. apply gres_dec; eassumption. }
    intros x1 X1. apply (IHr lv f F x1 jr n' i bf a sc n1 rest crest i2 b2 a2 s2 k2); [lia|lia|exact Hn|exact Hlv|exact Hwr|exact X1|exact E2|exact Hrest].
  - cbn [jk_values jprint]. chunks_eq.
Qed.

Theorem sgen_print_all : (forall s, GQ_s s) /\ (forall b, GQ_b b) /\ (forall e, GQ_e e) /\ (forall k, GQ_k k) /\ (forall ps, GQ_p ps) /\ (forall q, GQ_q q).
Proof.
  apply cstmt_mutind.
  - exact sgen_print_raw.
  - exact sgen_print_print.
  - exact sgen_print_let.
  - exact sgen_print_letc.
  - exact sgen_print_if.
  - exact sgen_print_switch.
  - exact sgen_print_foreach.
  - exact sgen_print_forrange.
  - exact sgen_print_css.
  - exact sgen_print_call.
  - exact sgen_print_msg.
  - intros pn v q IHq lv f st j sc' n' i bf a sc n Hf. rewrite sdepth_msgpl in Hf. destruct f as [|F]; [lia|]. apply sgen_print_msgpl; [exact IHq|lia|lia].
  - intros lv f st jb n' i bf a sc n Hf Hn Hlv Hwf Hs Eg. rewrite bgen_nil in Eg. inversion Eg; subst.
    exists sc. split; [reflexivity|]. split; [reflexivity|]. apply gres_ret; exact Hs.
  - exact sgen_print_bcons.
  - intros lv F st jl n' i bf a sc n Hf Hn Hlv Hwf Hs Eg. rewrite egen_none in Eg. inversion Eg; subst. cbn [enodes jif_conds lprint]. apply gres_ret; exact Hs.
  - intros b IHb lv F st jl n' i bf a sc n Hf Hn Hlv Hwf Hs Eg. rewrite egen_else in Eg. rewrite edepth_else in Hf.
    destruct (bgen a bf ([] :: sc) n b) as [jb n1] eqn:E1. inversion Eg; subst. clear Eg.
    rewrite enodes_else, lprint_else. cbn [jif_conds]. eapply gres_eq.
    + gstep gres_txt. gstep gres_ret.
      eapply (gen_body_tail b lv F _ jb n'); [exact IHb|lia|exact Hlv|exact Hwf|eassumption|exact E1|]. intros y Hy. apply gres_ret; exact Hy.
    + chunks_eq.
  - exact sgen_print_elif.
  - intros lv F st jk n' i bf a sc n Hf Hn Hlv Hwf Hs Eg. rewrite kgen_none in Eg. inversion Eg; subst. cbn [knodes jswitch_cases kprint]. apply gres_ret; exact Hs.
  - intros b IHb lv F st jk n' i bf a sc n Hf Hn Hlv Hwf Hs Eg. rewrite kgen_default in Eg. rewrite kdepth_default in Hf.
    destruct (bgen a bf ([] :: sc) n b) as [jb n1] eqn:E1. inversion Eg; subst. clear Eg.
    rewrite knodes_default, kprint_default. cbn [jswitch_cases case_values]. eapply gres_eq.
    + gstep gres_ret. gstep gres_sln.
      eapply (gen_case_body b lv F _ jb n'); [exact IHb|lia|exact Hlv|exact Hwf|eassumption|exact E1|]. intros y Hy. apply gres_ret; exact Hy.
    + chunks_eq.
  - exact sgen_print_kcase.
  - intros lv F st jps n' i bf a sc n first acc Hf Hn Hlv Hwf Hs Eg. rewrite pgen_nil in Eg. inversion Eg; subst.
    exists st. cbn [pnodes jcall_params jp_args jps_print pprint rev app]. rewrite app_nil_r. split; [reflexivity|]. split; [reflexivity|]. split; [exact Hs|reflexivity].
  - exact sgen_print_pval.
  - exact sgen_print_pcont.
  - intros b IHb lv f F st jk n' i bf a sc n rest crest i2 b2 a2 s2 k2 Hd Hl Hn Hlv Hwf Hs Eg Hrest. rewrite qgen_dflt in Eg.
    destruct (bgen a bf sc n b) as [jb n1] eqn:E1. inversion Eg; subst. clear Eg.
    rewrite qwf_dflt in Hwf. apply andb_prop in Hwf as [Hm Hwb]. rewrite qdepth_dflt in Hd. cbn [c04_qlen] in Hl.
    rewrite qcnodes_dflt, qdnodes_dflt, kprint_nb_default. cbn [c04_plgo].
    eapply gres_eq.
    + gstep gres_ret. gstep gres_sln. gstep gres_inc. gstep (gen_qbody b lv f F). gstep gres_dec. apply Hrest; assumption.
    + chunks_eq.
  - exact sgen_print_qcase.
Qed.
End StmtChunks.

(* [gstep] as in the section above (a Tactic Notation ends with its section) *)
Tactic Notation "gstep" uconstr(L) := eapply gres_bind; [eapply L; try eassumption | intros ? ?].
