(* C16, json of every value: the text json.Marshal writes for a Soy value
   (Model/JsonEncode.v) is read by the RFC 8259 reader (Spec/Json.v) as the
   JSON value the Soy value denotes (jv_of_value), for values of any nesting
   depth and any size. *)
From Coq Require Import Lia ZifyBool.
From Soy Require Import Model.Bytes Generated.Tables Model.Utf8 Model.Num Model.Outcome Model.Values Model.Escape Model.Directives
  Model.JsEscape Model.JsonEncode Spec.Html Spec.Codec Spec.Json
  Proofs.Utf8Proofs Proofs.MsgIdProofs Proofs.ValueProofs Proofs.CodecProofs Proofs.CodecJsonNum.
From Soy Require Import Proofs.BytesBase Proofs.ForallAll.
Open Scope N_scope.

Definition raw_byte (c : N) : Prop := c <> 34 /\ c <> 92.

Definition consp (pre : bstr) (p : bstr * bstr) : bstr * bstr := (pre ++ fst p, snd p).

Lemma str_body_raw pre : forall Y, Forall raw_byte pre ->
  str_body false (pre ++ Y) = option_map (consp pre) (str_body false Y).
Proof.
  induction pre as [|c pre IH]; intros Y H.
  - cbn [app]. destruct (str_body false Y) as [[x y]|]; reflexivity.
  - inversion H as [|? ? [H1 H2] Hr]; subst. cbn [app str_body].
    destruct (N.eqb_spec c 34); [congruence|]. destruct (N.eqb_spec c 92); [congruence|].
    rewrite IH by exact Hr. destruct (str_body false Y) as [[x y]|]; reflexivity.
Qed.

Lemma str_body_esc x pre Y : Forall raw_byte pre ->
  str_body false (92 :: x :: pre ++ Y) = option_map (consp (92 :: x :: pre)) (str_body false Y).
Proof.
  intros H. cbn [str_body]. change (92 =? 34) with false. change (92 =? 92) with true. cbv iota.
  rewrite str_body_raw by exact H. destruct (str_body false Y) as [[a c]|]; reflexivity.
Qed.

Lemma hexdigit_lc_raw n : n < 16 -> raw_byte (hexdigit_lc n).
Proof. intros H. unfold raw_byte, hexdigit_lc. brk; lia. Qed.

Lemma json_ascii_escape_shape c e : c < 128 -> json_ascii_escape c = Some e ->
  exists x pre, e = 92 :: x :: pre /\ Forall raw_byte pre.
Proof.
  intros Hc. unfold json_ascii_escape. brk; intros [= <-]; (eexists; eexists; split; [reflexivity|]);
    repeat constructor; try lia; apply hexdigit_lc_raw; lia.
Qed.

Lemma json_ascii_escape_none c : json_ascii_escape c = None -> raw_byte c.
Proof.
  unfold json_ascii_escape, raw_byte.
  destruct (N.eqb_spec c 92); [discriminate|]. destruct (N.eqb_spec c 34); [discriminate|]. intros _. split; assumption.
Qed.

Lemma str_body_json s : forall k rest,
  str_body false (json_string_aux k s ++ 34 :: rest) = Some (json_string_aux k s, rest).
Proof.
  induction s as [|c r IH]; intros k rest.
  - destruct k; cbn [json_string_aux app str_body]; reflexivity.
  - cbn [json_string_aux]. destruct k as [|k]; [|apply IH].
    assert (forall x pre k', Forall raw_byte pre ->
              str_body false ((92 :: x :: pre ++ json_string_aux k' r) ++ 34 :: rest) = Some (92 :: x :: pre ++ json_string_aux k' r, rest)) as Hesc.
    { intros x pre k' Hp. cbn [app]. rewrite <- app_assoc. rewrite str_body_esc by exact Hp. rewrite IH. reflexivity. }
    assert (forall pre k', Forall raw_byte pre ->
              str_body false ((pre ++ json_string_aux k' r) ++ 34 :: rest) = Some (pre ++ json_string_aux k' r, rest)) as Hraw.
    { intros pre k' Hp. rewrite <- app_assoc. rewrite str_body_raw by exact Hp. rewrite IH. reflexivity. }
    destruct (c <? 128) eqn:E128.
    + destruct (json_ascii_escape c) as [e|] eqn:Ee.
      * destruct (json_ascii_escape_shape c e ltac:(lia) Ee) as (x & pre & -> & Hp). apply (Hesc x pre 0%nat Hp).
      * apply (Hraw [c] 0%nat). constructor; [apply json_ascii_escape_none, Ee|constructor].
    + destruct (decode_rune (c :: r)) as [ru w] eqn:Hd.
      destruct ((ru =? rune_error) && Nat.eqb w 1).
      { unfold json_fffd. apply (Hesc 117 [102; 102; 102; 100] 0%nat). repeat constructor; lia. }
      destruct ((ru =? 8232) || (ru =? 8233)).
      { apply (Hesc 117 [50; 48; 50; hexdigit_lc (ru mod 16)] (Nat.pred w)). repeat constructor; try lia; apply hexdigit_lc_raw; lia. }
      apply Hraw. eapply Forall_impl; [|eapply decode_rune_take_high; [exact Hd|exists c, r; split; [reflexivity|lia]]].
      cbn. unfold raw_byte. intros; lia.
Qed.

Lemma json_string_at_ok s rest : utf8_valid s = true ->
  json_string_at (json_string_aux 0 s ++ 34 :: rest) = Some (s, rest).
Proof.
  intros Hv. unfold json_string_at. rewrite str_body_json.
  change (34 :: json_string_aux 0 s ++ [34]) with (json_string s). rewrite json_string_roundtrip by exact Hv. reflexivity.
Qed.

Section ValueInd.
  Variable P : value -> Prop.
  Hypothesis Hu : P VUndef.
  Hypothesis Hn : P VNull.
  Hypothesis Hb : forall x, P (VBool x).
  Hypothesis Hi : forall z, P (VInt z).
  Hypothesis Hf : forall x, P (VFloat x).
  Hypothesis Hs : forall s, P (VStr s).
  Hypothesis Hl : forall id l, Forall P l -> P (VList id l).
  Hypothesis Hm : forall id m, Forall (fun kx => P (snd kx)) m -> P (VMap id m).
  Fixpoint value_ind2 (v : value) : P v :=
    match v with
    | VUndef => Hu | VNull => Hn | VBool x => Hb x | VInt z => Hi z | VFloat x => Hf x | VStr s => Hs s
    | VList id l => Hl id l (Forall_all P value_ind2 l)
    | VMap id m => Hm id m (Forall_all _ (fun kx => value_ind2 (snd kx)) m)
    end.
End ValueInd.

(* a conjunction written as a local fixpoint (as in json_ok) is Forall *)
Lemma all_Forall {A} (P : A -> Prop) l :
  (fix all (l : list A) : Prop := match l with [] => True | x :: r => P x /\ all r end) l <-> Forall P l.
Proof. induction l as [|x r IH]; [split; constructor|]. rewrite Forall_cons_iff, <- IH. reflexivity. Qed.

Lemma all_pairs_Forall {A B} (P : A -> B -> Prop) m :
  (fix all (m : list (A * B)) : Prop := match m with [] => True | (k, x) :: r => P k x /\ all r end) m
  <-> Forall (fun kx => P (fst kx) (snd kx)) m.
Proof. induction m as [|[k x] r IH]; [split; constructor|]. rewrite Forall_cons_iff, <- IH. reflexivity. Qed.

Definition starts (P : N -> Prop) (s : bstr) : Prop := match s with c :: _ => P c | [] => False end.

Lemma starts_app P a c : starts P a -> starts P (a ++ c).
Proof. destruct a; [contradiction|exact (fun H => H)]. Qed.

Lemma starts_impl (P Q : N -> Prop) s : (forall c, P c -> Q c) -> starts P s -> starts Q s.
Proof. destruct s; [intros _ []|intros H; apply H]. Qed.

Lemma starts_length P s : starts P s -> (1 <= length s)%nat.
Proof. destruct s; [intros []|cbn [length]; lia]. Qed.

Lemma join_starts P sep items X : items <> [] -> Forall (starts P) items -> starts P (join sep items ++ X).
Proof.
  intros Hne H. destruct H as [|s r Hs _]; [congruence|]. apply starts_app.
  destruct r; [exact Hs|apply starts_app, Hs].
Qed.

Lemma join_length_in sep items s : In s items -> (length s <= length (join sep items))%nat.
Proof.
  induction items as [|t r IH]; [intros []|]. intros [->|H]; (destruct r as [|t2 r2]; [cbn [join In] in *; try lia; tauto|]);
    change (join sep (?x :: t2 :: r2)) with (x ++ sep ++ join sep (t2 :: r2)); rewrite !app_length; [lia|specialize (IH H); lia].
Qed.

Lemma join_length_count sep items : Forall (fun s => (1 <= length s)%nat) items -> (length items <= length (join sep items))%nat.
Proof.
  induction 1 as [|s r Hs _ IH]; [cbn; lia|]. destruct r as [|s2 r2]; [cbn [join length]; lia|].
  change (join sep (s :: s2 :: r2)) with (s ++ sep ++ join sep (s2 :: r2)). rewrite !app_length. cbn [length] in *. lia.
Qed.

(* [nn]: whether a nil list / map is written as null (Model/JsonEncode.v nil_null) *)
Section WithNil.
Variable nn : bool.

(* the loops of json_encode / jv_of_value, named *)
Fixpoint enc_items (l : list value) : outcome (list bstr) :=
  match l with
  | [] => Ok []
  | x :: r => s <- json_encode nn x ;; rs <- enc_items r ;; Ok (s :: rs)
  end.
Fixpoint enc_members (m : list (bstr * value)) : outcome (list (bstr * bstr)) :=
  match m with
  | [] => Ok []
  | (k, x) :: r => s <- json_encode nn x ;; rs <- enc_members r ;; Ok ((k, s) :: rs)
  end.
Fixpoint jv_items (l : list value) : option (list jvalue) :=
  match l with
  | [] => Some []
  | x :: r => match jv_of_value x, jv_items r with Some j, Some js => Some (j :: js) | _, _ => None end
  end.
Fixpoint jv_members_of (m : list (bstr * value)) : option (list (bstr * jvalue)) :=
  match m with
  | [] => Some []
  | (k, x) :: r => match jv_of_value x, jv_members_of r with Some j, Some js => Some ((k, j) :: js) | _, _ => None end
  end.

Lemma json_encode_list id l :
  json_encode nn (VList id l) =
  if is_nil_coll nn id l then Ok s_null else (items <- enc_items l ;; Ok ([91] ++ join [44] items ++ [93])).
Proof. reflexivity. Qed.

Lemma json_encode_map id m :
  json_encode nn (VMap id m) =
  if is_nil_coll nn id m then Ok s_null else
  (items <- enc_members m ;; Ok ([123] ++ join [44] (map json_member (json_sort_kv items)) ++ [125])).
Proof. reflexivity. Qed.

Lemma jv_of_list id l : jv_of_value (VList id l) = option_map JvArr (jv_items l).
Proof. reflexivity. Qed.

Lemma jv_of_map id m : jv_of_value (VMap id m) = option_map JvObj (jv_members_of m).
Proof. reflexivity. Qed.

(* ---- the values the theorem is about: strings and keys are valid UTF-8, floats are
   normalised (odd mantissa: what mk_fl builds), the keys of a map are strictly
   increasing (the invariant of Model/Values.v: unique keys kept sorted) ---- *)
Fixpoint keys_sorted (ks : list bstr) : Prop :=
  match ks with
  | k1 :: ((k2 :: _) as r) => bstr_ltb k1 k2 = true /\ keys_sorted r
  | _ => True
  end.

Fixpoint json_ok (v : value) : Prop :=
  match v with
  | VStr s => utf8_valid s = true
  | VFloat x => fl_norm x
  | VList id l =>
      is_nil_coll nn id l = false /\
      (fix all (l : list value) : Prop := match l with [] => True | x :: r => json_ok x /\ all r end) l
  | VMap id m =>
      is_nil_coll nn id m = false /\ keys_sorted (map fst m) /\
      (fix all (m : list (bstr * value)) : Prop :=
         match m with [] => True | (k, x) :: r => (utf8_valid k = true /\ json_ok x) /\ all r end) m
  | _ => True
  end.

Lemma json_ok_list id l : json_ok (VList id l) <-> is_nil_coll nn id l = false /\ Forall json_ok l.
Proof. cbn [json_ok]. apply and_iff_compat_l, all_Forall. Qed.

Lemma json_ok_map id m : json_ok (VMap id m) <->
  is_nil_coll nn id m = false /\ keys_sorted (map fst m) /\ Forall (fun kx => utf8_valid (fst kx) = true /\ json_ok (snd kx)) m.
Proof.
  cbn [json_ok]. apply and_iff_compat_l, and_iff_compat_l. apply (all_pairs_Forall (fun k x => utf8_valid k = true /\ json_ok x)).
Qed.

Lemma enc_items_Forall2 l items : enc_items l = Ok items <-> Forall2 (fun x s => json_encode nn x = Ok s) l items.
Proof.
  revert items. induction l as [|x r IH]; intros items; cbn [enc_items].
  - split; [intros [= <-]; constructor|intros H; inversion H; reflexivity].
  - split.
    + intros H. apply bind_ok in H as (s & Hs & H). apply bind_ok in H as (rs & Hrs & [= <-]).
      constructor; [exact Hs|apply IH, Hrs].
    + intros H. inversion H as [|? s ? rs Hs Hrs]; subst. apply IH in Hrs. rewrite Hs, Hrs. reflexivity.
Qed.

Lemma enc_members_Forall2 m items :
  enc_members m = Ok items <-> Forall2 (fun kx ks => fst ks = fst kx /\ json_encode nn (snd kx) = Ok (snd ks)) m items.
Proof.
  revert items. induction m as [|[k x] r IH]; intros items; cbn [enc_members].
  - split; [intros [= <-]; constructor|intros H; inversion H; reflexivity].
  - split.
    + intros H. apply bind_ok in H as (s & Hs & H). apply bind_ok in H as (rs & Hrs & [= <-]).
      constructor; [split; [reflexivity|exact Hs]|apply IH, Hrs].
    + intros H. inversion H as [|? [k' s] ? rs [Hk Hs] Hrs]; subst. cbn [fst snd] in *. subst k'.
      apply IH in Hrs. rewrite Hs, Hrs. reflexivity.
Qed.

Definition num_start (c : N) : Prop := c = 45 \/ is_digit_byte c.
Definition vstart (c : N) : Prop := c = 110 \/ c = 116 \/ c = 102 \/ c = 34 \/ c = 91 \/ c = 123 \/ num_start c.

Lemma dec_of_Z_start z : starts num_start (dec_of_Z z).
Proof.
  destruct z as [|p|p]; cbn [dec_of_Z]; [right; unfold is_digit_byte; lia| |left; reflexivity].
  pose proof (dec_of_N_digits (Npos p)) as Hd. pose proof (dec_of_N_nonempty (Npos p)).
  destruct Hd; [congruence|right; assumption].
Qed.

Lemma json_float_start x s : json_float x = Ok s -> starts num_start s.
Proof.
  unfold json_float. destruct x as [| |n|m e]; try discriminate.
  - destruct n; intros [= <-]; cbn; unfold num_start, is_digit_byte; lia.
  - destruct (fl_to_string_dom (FFin m e)) as [t|] eqn:E; [|discriminate]. intros [= <-].
    revert E. cbn [fl_to_string_dom]. cbv zeta.
    destruct (0 <=? e)%Z; [|destruct (e <? -9)%Z; [discriminate|]];
      (destruct (_ <? 1000000)%Z; [|discriminate]); intros E; apply some_inj in E; subst t;
      (destruct (m <? 0)%Z; cbn [app]; [left; reflexivity|]).
    + apply dec_of_Z_start.
    + apply starts_app, dec_of_Z_start.
Qed.

Lemma json_encode_head v s : json_encode nn v = Ok s -> starts vstart s.
Proof.
  assert (forall t, starts num_start t -> starts vstart t) as Hnum
    by (intros t; apply starts_impl; unfold vstart; tauto).
  destruct v as [| |x|z|x|t|id l|id m].
  1, 2: intros [= <-]; cbn; unfold vstart; lia.
  - destruct x; intros [= <-]; cbn; unfold vstart; lia.
  - intros [= <-]. apply Hnum, dec_of_Z_start.
  - intros H. apply Hnum, (json_float_start x), H.
  - intros [= <-]. cbn. unfold vstart. lia.
  - rewrite json_encode_list. destruct (is_nil_coll nn id l); [|intros H; apply bind_ok in H as (items & _ & H); revert H];
      intros [= <-]; cbn; unfold vstart; lia.
  - rewrite json_encode_map. destruct (is_nil_coll nn id m); [|intros H; apply bind_ok in H as (items & _ & H); revert H];
      intros [= <-]; cbn; unfold vstart; lia.
Qed.

Lemma skip_ws_head c r : is_ws c = false -> skip_ws (c :: r) = c :: r.
Proof. intros H. cbn [skip_ws]. rewrite H. reflexivity. Qed.

Lemma jv_body_number pv g s rest : starts num_start s -> jv_body pv g (s ++ rest) = json_number (s ++ rest).
Proof.
  destruct s as [|c r]; [intros []|]. cbn [starts app]. unfold num_start, is_digit_byte, jv_body. intros Hc.
  rewrite skip_ws_head by (unfold is_ws; lia).
  destruct (N.eqb_spec c 110); [lia|]. destruct (N.eqb_spec c 116); [lia|]. destruct (N.eqb_spec c 102); [lia|].
  destruct (N.eqb_spec c 34); [lia|]. destruct (N.eqb_spec c 91); [lia|]. destruct (N.eqb_spec c 123); [lia|]. reflexivity.
Qed.

Lemma jv_body_str pv g s : jv_body pv g (34 :: s) =
  match json_string_at s with Some (v, r') => Some (JvStr v, r') | None => None end.
Proof. reflexivity. Qed.

Lemma jv_body_arr pv g s : jv_body pv g (91 :: s) =
  match eat 93 (skip_ws s) with
  | Some r' => Some (JvArr [], r')
  | None => match jv_elems pv g (skip_ws s) with Some (xs, r') => Some (JvArr xs, r') | None => None end
  end.
Proof. reflexivity. Qed.

Lemma jv_body_obj pv g s : jv_body pv g (123 :: s) =
  match eat 125 (skip_ws s) with
  | Some r' => Some (JvObj [], r')
  | None => match jv_members pv g (skip_ws s) with Some (ms, r') => Some (JvObj ms, r') | None => None end
  end.
Proof. reflexivity. Qed.

(* bytes that may follow a value inside a text end a number *)
Lemma stop_num_sep c rest : c = 44 \/ c = 93 \/ c = 125 -> stop_num (c :: rest).
Proof. intros H. cbn [stop_num]. unfold is_digit, in_range. lia. Qed.

Definition parses (pv : bstr -> option (jvalue * bstr)) (s : bstr) (j : jvalue) : Prop :=
  starts vstart s /\ forall rest, stop_num rest -> pv (s ++ rest) = Some (j, rest).

Lemma eat_hit c r : eat c (c :: r) = Some r.
Proof. cbn [eat]. rewrite N.eqb_refl. reflexivity. Qed.

Lemma eat_miss c x r : x <> c -> eat c (x :: r) = None.
Proof. intros H. cbn [eat]. destruct (N.eqb_spec x c); [congruence|reflexivity]. Qed.

Lemma skip_eat_start c t : c = 93 \/ c = 125 -> starts vstart t -> skip_ws t = t /\ eat c t = None.
Proof.
  destruct t as [|x r]; [intros _ []|]. cbn [starts]. unfold vstart, num_start, is_digit_byte. intros Hc Hx.
  split; [apply skip_ws_head; unfold is_ws; lia|apply eat_miss; lia].
Qed.

Lemma jv_elems_ok pv items js : Forall2 (parses pv) items js -> items <> [] ->
  forall g rest, (length items <= g)%nat -> jv_elems pv g (join [44] items ++ 93 :: rest) = Some (js, rest).
Proof.
  induction 1 as [|s j items js Hsj Hrest IH]; [congruence|]. intros _ g rest Hg.
  destruct g as [|g]; [cbn [length] in Hg; lia|]. cbn [length] in Hg.
  destruct Hsj as (_ & Hp).
  destruct items as [|s2 items'].
  - inversion Hrest; subst. cbn [join jv_elems]. rewrite Hp by (apply stop_num_sep; auto).
    rewrite skip_ws_head by reflexivity. rewrite eat_miss by lia. rewrite eat_hit. reflexivity.
  - change (join [44] (s :: s2 :: items')) with (s ++ [44] ++ join [44] (s2 :: items')).
    rewrite <- !app_assoc. cbn [jv_elems]. change ([44] ++ join [44] (s2 :: items') ++ 93 :: rest) with (44 :: join [44] (s2 :: items') ++ 93 :: rest).
    rewrite Hp by (apply stop_num_sep; auto).
    rewrite skip_ws_head by reflexivity. rewrite eat_hit.
    rewrite IH by (try discriminate; cbn [length] in *; lia). reflexivity.
Qed.

Definition parses_member (pv : bstr -> option (jvalue * bstr)) (ks : bstr * bstr) (kj : bstr * jvalue) : Prop :=
  fst ks = fst kj /\ utf8_valid (fst ks) = true /\ parses pv (snd ks) (snd kj).

Lemma jv_member_ok pv ks kj rest : parses_member pv ks kj -> stop_num rest ->
  jv_member pv (json_member ks ++ rest) = Some (kj, rest).
Proof.
  destruct ks as [k s], kj as [k' j]. intros (Ek & Hv & (Hhead & Hp)) Hstop. cbn [fst snd] in *. subst k'.
  unfold json_member, json_string. cbn [fst snd]. unfold jv_member.
  cbn [app]. rewrite skip_ws_head by reflexivity. rewrite eat_hit.
  rewrite <- !app_assoc. change ([34] ++ (58 :: s) ++ rest) with (34 :: 58 :: s ++ rest).
  rewrite json_string_at_ok by exact Hv.
  rewrite skip_ws_head by reflexivity. rewrite eat_hit. rewrite Hp by exact Hstop. reflexivity.
Qed.

Lemma jv_members_ok pv items js : Forall2 (parses_member pv) items js -> items <> [] ->
  forall g rest, (length items <= g)%nat -> jv_members pv g (join [44] (map json_member items) ++ 125 :: rest) = Some (js, rest).
Proof.
  induction 1 as [|ks kj items js Hkj Hrest IH]; [congruence|]. intros _ g rest Hg.
  destruct g as [|g]; [cbn [length] in Hg; lia|]. cbn [length] in Hg.
  destruct items as [|ks2 items'].
  - inversion Hrest; subst. cbn [map join jv_members]. rewrite (jv_member_ok pv ks kj) by (try assumption; apply stop_num_sep; auto).
    rewrite skip_ws_head by reflexivity. rewrite eat_miss by lia. rewrite eat_hit. reflexivity.
  - change (join [44] (map json_member (ks :: ks2 :: items'))) with (json_member ks ++ [44] ++ join [44] (map json_member (ks2 :: items'))).
    rewrite <- !app_assoc. cbn [jv_members].
    change ([44] ++ join [44] (map json_member (ks2 :: items')) ++ 125 :: rest) with (44 :: join [44] (map json_member (ks2 :: items')) ++ 125 :: rest).
    rewrite (jv_member_ok pv ks kj) by (try assumption; apply stop_num_sep; auto).
    rewrite skip_ws_head by reflexivity. rewrite eat_hit.
    rewrite IH by (try discriminate; cbn [length] in *; lia). reflexivity.
Qed.

(* ---- sorted keys: the encoder's sort leaves the members where they are ---- *)
Lemma sort_kv_sorted {A} (l : list (bstr * A)) : keys_sorted (map fst l) -> json_sort_kv l = l.
Proof.
  induction l as [|[k x] r IH]; [reflexivity|]. intros Hs. unfold json_sort_kv in *. cbn [fold_right fst snd].
  destruct r as [|[k2 x2] r2].
  - reflexivity.
  - cbn [map fst keys_sorted] in Hs. destruct Hs as [Hlt Hs]. rewrite IH by exact Hs.
    cbn [json_insert_kv]. unfold bstr_leb. rewrite (bstr_ltb_asym k k2 Hlt). reflexivity.
Qed.

Lemma enc_members_keys m items : enc_members m = Ok items -> map fst items = map fst m.
Proof.
  intros H. apply enc_members_Forall2 in H. induction H as [|kx ks m items [Hk _] _ IH]; [reflexivity|].
  cbn [map]. rewrite Hk, IH. reflexivity.
Qed.

(* the reader's fuel bounds the nesting depth and the number of elements of every collection: as many units
   as the text has bytes are enough *)
Definition roundtrips (v : value) : Prop :=
  json_ok v -> forall s, json_encode nn v = Ok s ->
  exists j, jv_of_value v = Some j /\
            forall f rest, (length s <= f)%nat -> stop_num rest -> jv_parse (S f) (s ++ rest) = Some (j, rest).

Lemma jv_parse_S f s : jv_parse (S f) s = jv_body (jv_parse f) f s.
Proof. reflexivity. Qed.

Lemma jv_body_lit pv g lit j rest c r n : lit = c :: r -> is_ws c = false ->
  (forall g', jv_body pv g' (c :: r ++ rest) =
     (if is_prefix lit (c :: r ++ rest) then Some (j, drop n (c :: r ++ rest)) else None)) ->
  is_prefix lit (lit ++ rest) = true -> drop n (lit ++ rest) = rest ->
  jv_body pv g (lit ++ rest) = Some (j, rest).
Proof. intros -> Hws Hb Hp Hd. cbn [app] in *. rewrite Hb, Hp, Hd. reflexivity. Qed.

Lemma is_prefix_app_self p X : is_prefix p (p ++ X) = true.
Proof. exact (BytesBase.is_prefix_app_self p X). Qed.

Theorem json_roundtrip_at : forall v, roundtrips v.
Proof.
  apply value_ind2; unfold roundtrips.
  - intros _ s [= <-]. exists JvNull. split; reflexivity.
  - intros _ s [= <-]. exists JvNull. split; reflexivity.
  - intros x _ s H. exists (JvBool x). split; [reflexivity|]. destruct x; injection H as <-; reflexivity.
  - intros z _ s [= <-]. exists (num_of_Z z). split; [reflexivity|]. intros f rest _ Hs.
    rewrite jv_parse_S, jv_body_number by apply dec_of_Z_start. apply json_number_int, Hs.
  - intros x Hok s H. cbn [json_ok] in Hok. cbn [json_encode] in H.
    assert (exists j, num_of_fl x = Some j) as (j & Hj).
    { destruct x; cbn [json_float] in H; try discriminate; cbn [num_of_fl]; [eauto|].
      destruct (0 <=? e)%Z; destruct (dec_norm _ _); eauto. }
    exists j. split; [exact Hj|]. intros f rest _ Hs.
    rewrite jv_parse_S, jv_body_number by (eapply json_float_start, H).
    unfold json_float in H. destruct x as [| |n|m e]; try discriminate;
      (destruct (fl_to_string_dom _) as [t|] eqn:E; [|discriminate]); injection H as <-; eapply json_number_float; eauto.
  - intros t Hok s [= <-]. cbn [json_ok] in Hok. exists (JvStr t). split; [reflexivity|]. intros f rest _ Hs.
    rewrite jv_parse_S. unfold json_string. cbn [app]. rewrite jv_body_str, <- app_assoc.
    change ([34] ++ rest) with (34 :: rest). rewrite json_string_at_ok by exact Hok. reflexivity.
  - (* lists *)
    intros id l IH Hok s H. rewrite json_ok_list in Hok. destruct Hok as [Hnil Hok]. rewrite json_encode_list, Hnil in H.
    apply bind_ok in H as (items & Hitems & [= <-]). apply enc_items_Forall2 in Hitems.
    assert (exists js, jv_items l = Some js /\
              forall f, (forall sx, In sx items -> length sx <= f)%nat -> Forall2 (parses (jv_parse (S f))) items js) as (js & Hjs & Hpar).
    { clear Hnil. revert IH Hok. induction Hitems as [|x sx l items Hsx _ IHl]; intros IH Hok.
      - exists []. split; [reflexivity|constructor].
      - apply Forall_cons_iff in IH as [IHx IHr]. apply Forall_cons_iff in Hok as [Hokx Hokr].
        destruct (IHx Hokx sx Hsx) as (j & Hj & Hpx). destruct (IHl IHr Hokr) as (js & Hjs & Hpr).
        exists (j :: js). cbn [jv_items]. rewrite Hj, Hjs. split; [reflexivity|]. intros f Hf. constructor.
        + split; [eapply json_encode_head, Hsx|]. intros rest. apply Hpx, Hf. left; reflexivity.
        + apply Hpr. intros y Hy. apply Hf. right. exact Hy. }
    exists (JvArr js). split; [rewrite jv_of_list, Hjs; reflexivity|].
    intros f rest Hf Hs. rewrite jv_parse_S. cbn [app]. rewrite jv_body_arr. cbn [length] in Hf. rewrite app_length in Hf. cbn [length] in Hf.
    destruct items as [|sx0 items0].
    + inversion Hitems; subst. injection Hjs as <-. reflexivity.
    + destruct f as [|f]; [lia|].
      assert (Forall2 (parses (jv_parse (S f))) (sx0 :: items0) js) as HF2.
      { apply Hpar. intros y Hy. pose proof (join_length_in [44] _ y Hy). lia. }
      assert (Forall (starts vstart) (sx0 :: items0)) as Hst.
      { clear - HF2. induction HF2 as [|? ? ? ? [Hh _]]; constructor; assumption. }
      rewrite <- app_assoc. change ([93] ++ rest) with (93 :: rest).
      destruct (skip_eat_start 93 (join [44] (sx0 :: items0) ++ 93 :: rest)) as [-> ->];
        [auto|apply join_starts; [discriminate|exact Hst]|].
      rewrite (jv_elems_ok _ _ js HF2); [reflexivity|discriminate|].
      etransitivity; [apply (join_length_count [44]), (Forall_impl _ (starts_length vstart) Hst)|lia].
  - (* maps *)
    intros id m IH Hok s H. rewrite json_ok_map in Hok. destruct Hok as (Hnil & Hsorted & Hok). rewrite json_encode_map, Hnil in H.
    apply bind_ok in H as (items & Hitems & [= <-]).
    rewrite sort_kv_sorted by (rewrite (enc_members_keys m items Hitems); exact Hsorted).
    apply enc_members_Forall2 in Hitems.
    assert (exists js, jv_members_of m = Some js /\
              forall f, (forall ks, In ks items -> length (snd ks) <= f)%nat -> Forall2 (parses_member (jv_parse (S f))) items js) as (js & Hjs & Hpar).
    { clear Hnil Hsorted. revert IH Hok. induction Hitems as [|[k x] [k' sx] m items [Hk Hsx] _ IHm]; intros IH Hok.
      - exists []. split; [reflexivity|constructor].
      - cbn [fst snd] in *. subst k'. apply Forall_cons_iff in IH as [IHx IHr]. apply Forall_cons_iff in Hok as [[Hvk Hokx] Hokr].
        cbn [fst snd] in *. destruct (IHx Hokx sx Hsx) as (j & Hj & Hpx). destruct (IHm IHr Hokr) as (js & Hjs & Hpr).
        exists ((k, j) :: js). cbn [jv_members_of]. rewrite Hj, Hjs. split; [reflexivity|]. intros f Hf. constructor.
        + split; [reflexivity|]. split; [exact Hvk|]. cbn [fst snd].
          split; [eapply json_encode_head, Hsx|]. intros rest. apply Hpx, (Hf (k, sx)). left; reflexivity.
        + apply Hpr. intros y Hy. apply Hf. right. exact Hy. }
    exists (JvObj js). split; [rewrite jv_of_map, Hjs; reflexivity|].
    intros f rest Hf Hs. rewrite jv_parse_S. cbn [app]. rewrite jv_body_obj. cbn [length] in Hf. rewrite app_length in Hf. cbn [length] in Hf.
    destruct items as [|ks0 items0].
    + inversion Hitems; subst. injection Hjs as <-. reflexivity.
    + destruct f as [|f]; [lia|].
      assert (Forall2 (parses_member (jv_parse (S f))) (ks0 :: items0) js) as HF2.
      { apply Hpar. intros y Hy. pose proof (join_length_in [44] _ _ (in_map json_member _ y Hy)).
        unfold json_member in H at 1. rewrite !app_length in H. lia. }
      assert (Forall (starts vstart) (map json_member (ks0 :: items0))) as Hst.
      { apply Forall_map, Forall_forall. intros ks _. unfold json_member, json_string, vstart. cbn. lia. }
      rewrite <- app_assoc. change ([125] ++ rest) with (125 :: rest).
      destruct (skip_eat_start 125 (join [44] (map json_member (ks0 :: items0)) ++ 125 :: rest)) as [-> ->];
        [auto|apply join_starts; [discriminate|exact Hst]|].
      rewrite (jv_members_ok _ _ js HF2); [reflexivity|discriminate|].
      rewrite <- (map_length json_member). etransitivity; [apply (join_length_count [44]), (Forall_impl _ (starts_length vstart) Hst)|lia].
Qed.

Theorem json_roundtrip v s : json_ok v -> json_encode nn v = Ok s ->
  exists j, jv_of_value v = Some j /\ json_parse s = Some j.
Proof.
  intros Hok Hs. destruct (json_roundtrip_at v Hok s Hs) as (j & Hj & Hp). exists j. split; [exact Hj|].
  unfold json_parse. specialize (Hp (length s) [] (le_n _) I).
  rewrite app_nil_r in Hp. rewrite Hp. reflexivity.
Qed.

(* the encoder fails only on NaN / infinities, and leaves the model only for floats outside the exact printing domain *)
Fixpoint json_finite (v : value) : Prop :=
  match v with
  | VFloat x => exists s, fl_to_string_dom x = Some s /\ x <> FNaN /\ x <> FInf true /\ x <> FInf false
  | VList _ l => (fix all (l : list value) : Prop := match l with [] => True | x :: r => json_finite x /\ all r end) l
  | VMap _ m => (fix all (m : list (bstr * value)) : Prop := match m with [] => True | (k, x) :: r => json_finite x /\ all r end) m
  | _ => True
  end.

Theorem json_encode_total : forall v, json_finite v -> exists s, json_encode nn v = Ok s.
Proof.
  apply (value_ind2 (fun v => json_finite v -> exists s, json_encode nn v = Ok s)); try (intros; eexists; reflexivity).
  - intros [|] _; eexists; reflexivity.
  - intros x (s & Hs & H1 & H2 & H3). exists s. cbn [json_encode]. unfold json_float.
    destruct x as [|[|]|n|m e]; try congruence; rewrite Hs; reflexivity.
  - intros id l IH Hfin. rewrite json_encode_list. destruct (is_nil_coll nn id l); [eexists; reflexivity|].
    assert (exists items, enc_items l = Ok items) as (items & ->); [|eexists; reflexivity].
    cbn [json_finite] in Hfin. induction l as [|x r IHr]; [eexists; reflexivity|].
    inversion IH as [|? ? IHx IHr']; subst. destruct Hfin as [Hx Hr].
    destruct (IHx Hx) as (sx & Esx). destruct (IHr IHr' Hr) as (rs & Ers). cbn [enc_items]. rewrite Esx, Ers. eexists; reflexivity.
  - intros id m IH Hfin. rewrite json_encode_map. destruct (is_nil_coll nn id m); [eexists; reflexivity|].
    assert (exists items, enc_members m = Ok items) as (items & ->); [|eexists; reflexivity].
    cbn [json_finite] in Hfin. induction m as [|[k x] r IHr]; [eexists; reflexivity|].
    inversion IH as [|? ? IHx IHr']; subst. destruct Hfin as [Hx Hr]. cbn [snd] in IHx.
    destruct (IHx Hx) as (sx & Esx). destruct (IHr IHr' Hr) as (rs & Ers). cbn [enc_members]. rewrite Esx, Ers. eexists; reflexivity.
Qed.

End WithNil.

