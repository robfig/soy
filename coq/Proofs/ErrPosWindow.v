(* C19, parse half: WHICH item a parse error is reported at.

   The parser sees the items the scanner sends, in order, followed by the zero items of the closed
   channel: [itm ts k] is the k-th item received (k = 0: the zero value token[0] holds before the
   first receive).  The invariant [W ts p] ties the token plumbing of Model/Token.v to that list:
       rest = the items not yet received,  token[0] = the item received last,
       peekCount <= 2,  and token[1] = the item received before the last whenever peekCount = 2.
   [B] (the state right after a next(): a backup is allowed) adds: peekCount = 0, or peekCount = 1
   and token[1] is still the item before the last.

   Theorem (one pass over every procedure of Model/ExprParser.v and Model/Parser.v, i.e. over every
   errorf / unexpected / expect site): an error is reported at the item received LAST or at the one
   received JUST BEFORE it ([werr]) -- the parser never complains about an item further back, nor
   about one it has not read.  Errors of a quoted attribute expression are reported at the last or
   last-but-one item its own scanner delivered ([qerr]). *)
From Soy Require Import Model.Bytes Model.Utf8 Model.Outcome Model.Num Model.Values Model.Ast Model.Token
  Model.NumLit Model.Quote Model.RawText Model.ExprParser Model.Parser Generated.Tables.
From Coq Require Import Lia List.
Import ListNotations.
Open Scope N_scope.

(* the k-th item received from the scanner's channel *)
Definition itm (ts : list tok) (k : nat) : tok :=
  match k with O => zero_tok | S i => nth i ts zero_tok end.

Lemma skipn_S_tl {A} n : forall (l : list A), skipn (S n) l = tl (skipn n l).
Proof. induction n as [|n IH]; intros [|a l]; try reflexivity. exact (IH l). Qed.
Lemma nth_hd_skipn {A} n : forall (l : list A) d, nth n l d = hd d (skipn n l).
Proof. induction n as [|n IH]; intros [|a l] d; try reflexivity. exact (IH l d). Qed.

Lemma recv_eq p : recv p = (hd zero_tok (p_rest p),
  {| p_rest := tl (p_rest p); p_tok0 := p_tok0 p; p_tok1 := p_tok1 p; p_peek := p_peek p; p_recv := S (p_recv p) |}).
Proof. unfold recv. destruct (p_rest p); reflexivity. Qed.

Section Win.
Variable ts : list tok.

Definition v1 (p : pst) : Prop := p_tok1 p = itm ts (p_recv p - 1)%nat.
Record W (p : pst) : Prop := {
  w_rest : p_rest p = skipn (p_recv p) ts;
  w_t0 : p_tok0 p = itm ts (p_recv p);
  w_peek : (p_peek p <= 2)%nat;
  w_t1 : p_peek p = 2%nat -> v1 p }.
Definition B (p : pst) : Prop := W p /\ (p_peek p = 0%nat \/ (p_peek p = 1%nat /\ v1 p)).
(* the item the last next() returned *)
Definition cur (p : pst) : tok := tok_at p (p_peek p).
(* reported at the item received last, or at the one before *)
Definition werr (t : tok) (p : pst) : Prop := t = itm ts (p_recv p) \/ t = itm ts (p_recv p - 1)%nat.
(* [t] was returned by the next() before the last one, and nothing is backed up *)
Definition prev (t : tok) (p : pst) : Prop := W p /\ p_peek p = 0%nat /\ t = itm ts (p_recv p - 1)%nat.

Lemma W_init : W (pst_init ts).
Proof. constructor; cbn; auto; try lia. Qed.

Lemma B_W p : B p -> W p. Proof. intros [H _]; exact H. Qed.

Lemma next_B p t p1 : p_next p = (t, p1) -> W p -> B p1 /\ t = cur p1.
Proof.
  intros E [Hr H0 Hpk H1]. unfold p_next in E. destruct (p_peek p) as [|[|[|k]]] eqn:Ek; [| | |lia].
  - rewrite recv_eq in E. cbn in E. injection E as <- <-.
    split; [split; [constructor; cbn [p_rest p_tok0 p_tok1 p_peek p_recv itm]; rewrite ?Hr, ?skipn_S_tl, ?nth_hd_skipn; auto; intros; discriminate|left; reflexivity]|reflexivity].
  - injection E as <- <-. split; [split; [constructor; cbn; auto; intros; discriminate|left; reflexivity]|reflexivity].
  - injection E as <- <-. split; [split; [constructor; cbn; auto; intros; discriminate|right; split; [reflexivity|exact (H1 eq_refl)]]|reflexivity].
Qed.

Lemma backup_W p : B p -> W (p_backup p).
Proof.
  intros [[Hr H0 Hpk H1] Hb]. constructor; cbn; auto.
  - destruct Hb as [Hb|[Hb _]]; lia.
  - intros E. destruct Hb as [Hb|[Hb Hv]]; [lia|exact Hv].
Qed.

Lemma cur_werr p : B p -> werr (cur p) p.
Proof.
  intros [[Hr H0 Hpk H1] Hb]. unfold werr, cur, tok_at. destruct Hb as [Hb|[Hb Hv]]; rewrite Hb.
  - left; exact H0.
  - right; exact Hv.
Qed.

Lemma err_tok_werr p : W p -> werr (err_tok p) p.
Proof.
  intros [Hr H0 Hpk H1]. unfold werr, err_tok, tok_at. destruct (p_peek p) as [|[|[|k]]] eqn:E; try lia.
  - left; exact H0.
  - left; exact H0.
  - right; exact (H1 eq_refl).
Qed.

(* a second next(): the item the first one returned is now the one received before the last *)
Lemma next_prev p t2 p2 : p_next p = (t2, p2) -> B p -> prev (cur p) p2 /\ B p2 /\ t2 = cur p2.
Proof.
  intros E Hb. destruct (next_B _ _ _ E (B_W _ Hb)) as [Hb2 Ht2]. split; [|split; assumption].
  split; [exact (B_W _ Hb2)|]. clear Ht2 Hb2.
  destruct Hb as [[Hr H0 Hpk H1] Hb]. unfold p_next in E. unfold cur, tok_at. unfold v1 in *.
  destruct Hb as [Hb|[Hb Hv]]; rewrite Hb in E |- *.
  - rewrite recv_eq in E. cbn in E. injection E as _ <-. cbn [p_peek p_recv]. rewrite Nat.sub_succ, Nat.sub_0_r. auto.
  - injection E as _ <-. cbn [p_peek p_recv]. auto.
Qed.

Lemma backup2_W t p : prev t p -> W (p_backup2 p t).
Proof. intros ([Hr H0 Hpk H1] & Hp & Ht). constructor; cbn; auto. Qed.
Lemma prev_backup t p : prev t p -> W (p_backup p) /\ werr t (p_backup p).
Proof.
  intros ([Hr H0 Hpk H1] & Hp & Ht). split; [constructor; cbn; auto; try lia; rewrite Hp; intros; discriminate|].
  right. exact Ht.
Qed.

Lemma peek_W p t p1 : p_peek_tok p = (t, p1) -> W p -> W p1.
Proof.
  intros E [Hr H0 Hpk H1]. unfold p_peek_tok in E. destruct (p_peek p) as [|k] eqn:Ek.
  - rewrite recv_eq in E. cbn in E. injection E as _ <-. constructor; cbn [p_rest p_tok0 p_tok1 p_peek p_recv itm]; rewrite ?Hr, ?skipn_S_tl, ?nth_hd_skipn; auto; intros; discriminate.
  - injection E as _ <-. constructor; rewrite ?Ek; auto.
Qed.

Definition xpost {A} (Q : A -> pst -> Prop) (r : presult A) : Prop :=
  match r with POk a p => Q a p | PErr t _ p => werr t p | _ => True end.
Notation XW := (fun _ p => W p).
Notation XR := (fun t p => B p /\ t = cur p).

Lemma xp_bind {A C} (Q1 : A -> pst -> Prop) (Q : C -> pst -> Prop) x f :
  xpost Q1 x -> (forall a p, Q1 a p -> xpost Q (f a p)) -> xpost Q (pbind x f).
Proof. destruct x; cbn; auto. Qed.
Lemma xp_errorf {A} (Q : A -> pst -> Prop) c p : W p -> xpost Q (p_errorf c p).
Proof. intros H. cbn. apply err_tok_werr; exact H. Qed.
Lemma xp_unexpected {A} (Q : A -> pst -> Prop) t p : B p -> t = cur p -> xpost Q (p_unexpected t p).
Proof. intros H ->. unfold p_unexpected. destruct (_ =? _); cbn; apply cur_werr; exact H. Qed.
Lemma xp_expect typ p : W p -> xpost XR (p_expect typ p).
Proof.
  intros H. unfold p_expect. destruct (p_next p) as [t p1] eqn:E. destruct (next_B _ _ _ E H) as [Hb Ht].
  destruct (_ =? _); [cbn; auto|apply xp_unexpected; auto].
Qed.

Section XBody.
Variable w : N -> pst -> presult node.
Hypothesis Hw : forall prec p, W p -> xpost (A:=node) XW (w prec p).

Hint Resolve conj eq_refl B_W backup_W xp_errorf xp_unexpected xp_expect Hw : xp.

(* One pass over a procedure: [xp_step] looks at the head of the program and applies the rule for it -- xp_bind with
   the postcondition of the first command (the hints), next_B for a next(), a case split for a conditional, the window
   for a return; [xp_go] repeats it.  (The command half, ErrPosWindowCmd.v gp_step, is built the same way.) *)
Ltac xp_intro := intros ? ? ?; cbn beta in *; repeat match goal with H : _ /\ _ |- _ => destruct H end.
Ltac xp_next :=
  match goal with
  | |- xpost _ (let '(_, _) := p_next ?st in _) =>
      let t := fresh "t" in let q := fresh "q" in let E := fresh "E" in
      destruct (p_next st) as [t q] eqn:E;
      let Hb := fresh "Hb" in let Ht := fresh "Ht" in
      assert (Hb : B q /\ t = cur q) by (eapply next_B; [exact E|eauto 3 with xp nocore]); destruct Hb as [Hb Ht]
  end.
Ltac xp_step :=
  match goal with
  | |- xpost _ (pbind _ _) => eapply xp_bind; [solve [eauto 3 with xp nocore]|xp_intro]
  | |- xpost _ (let '(_, _) := p_next _ in _) => xp_next
  | |- xpost _ (if ?c then _ else _) => destruct c
  | |- xpost _ (match ?x with _ => _ end) => destruct x
  | |- xpost _ (let _ := _ in _) => cbv zeta
  | |- xpost _ (POk _ _) => cbn [xpost]; cbn beta; solve [eauto 3 with xp nocore]
  | |- xpost _ (PCrash _) => exact I
  | |- xpost _ PFuel => exact I
  | |- xpost _ _ => solve [eauto 3 with xp nocore]
  end.
Ltac xp_go := repeat xp_step.

Lemma xp_ternary cond p : W p -> xpost XW (parse_ternary w cond p).
Proof. intros H. unfold parse_ternary. xp_go. Qed.
Hint Resolve xp_ternary : xp.

Lemma xp_expr_loop lf : forall prec n p, W p -> xpost XW (expr_loop w lf prec n p).
Proof. induction lf as [|lf IH]; intros prec n p H; cbn [expr_loop]; xp_go. Qed.
Hint Resolve xp_expr_loop : xp.

Lemma xp_data_ref_loop lf : forall pos key acc p, W p -> xpost XW (data_ref_loop w lf pos key acc p).
Proof. induction lf as [|lf IH]; intros pos key acc p H; cbn [data_ref_loop]; xp_go. Qed.
Hint Resolve xp_data_ref_loop : xp.
Lemma xp_parse_data_ref lf t p : W p -> xpost XW (parse_data_ref w lf t p).
Proof. intros H. unfold parse_data_ref. xp_go. Qed.
Hint Resolve xp_parse_data_ref : xp.

Lemma xp_list_loop lf : forall pos items p, W p -> xpost XW (list_loop w lf pos items p).
Proof. induction lf as [|lf IH]; intros pos items p H; cbn [list_loop]; xp_go. Qed.
Lemma xp_map_loop lf : forall pos items key p, W p -> xpost XW (map_loop w lf pos items key p).
Proof. induction lf as [|lf IH]; intros pos items key p H; cbn [map_loop]; xp_go. Qed.
Hint Resolve xp_list_loop xp_map_loop : xp.
Lemma xp_parse_map_literal lf pos first p : W p -> xpost XW (parse_map_literal w lf pos first p).
Proof. intros H. unfold parse_map_literal. xp_go. Qed.
Hint Resolve xp_parse_map_literal : xp.
Lemma xp_parse_list_or_map lf t p : W p -> xpost XW (parse_list_or_map w lf t p).
Proof. intros H. unfold parse_list_or_map. xp_go. Qed.
Hint Resolve xp_parse_list_or_map : xp.

Lemma xp_global_loop lf : forall pos name nx p, B p -> xpost (A:=node) XW (global_loop lf pos name nx p).
Proof. induction lf as [|lf IH]; intros pos name nx p H; cbn [global_loop]; xp_go. Qed.
Lemma xp_func_loop lf : forall pos name args p, W p -> xpost XW (func_loop w lf pos name args p).
Proof. induction lf as [|lf IH]; intros pos name args p H; cbn [func_loop]; xp_go. Qed.
Hint Resolve xp_global_loop xp_func_loop : xp.
Lemma xp_new_function_node lf t p : W p -> xpost XW (new_function_node w lf t p).
Proof.
  intros H. unfold new_function_node. destruct (p_peek_tok p) as [pk p1] eqn:E.
  pose proof (peek_W _ _ _ E H) as H1. xp_go.
Qed.
Hint Resolve xp_new_function_node : xp.
Lemma xp_new_value_node lf t p : W p -> xpost XW (new_value_node w lf t p).
Proof. intros H. unfold new_value_node. xp_go. Qed.
Hint Resolve xp_new_value_node : xp.
Lemma xp_parse_first_term lf p : W p -> xpost XW (parse_first_term w lf p).
Proof. intros H. unfold parse_first_term. xp_go. Qed.
Hint Resolve xp_parse_first_term : xp.
Lemma xp_parse_expr_body lf prec p : W p -> xpost XW (parse_expr_body w lf prec p).
Proof. intros H. unfold parse_expr_body. xp_go. Qed.
End XBody.

Theorem xp_parse_expr fuel : forall prec p, W p -> xpost XW (parse_expr fuel prec p).
Proof.
  induction fuel as [|f IH]; intros prec p H; cbn [parse_expr]; [exact I|].
  apply xp_parse_expr_body; [exact IH|exact H].
Qed.
End Win.
