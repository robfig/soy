(* C01: the tree walker of Model/Interp.v evaluates the translation of every Spec expression
   exactly as Spec/Expr.v says (eval_impl_spec).  Part 1: the simulation framework, the
   value-level lemmas (operators, accesses), literals / operators / data references.
   The built-in functions are in Proofs/EvalFuncProofs.v. *)
From Coq Require Import Lia ZifyBool.
From Soy Require Import Model.Bytes Model.Num Model.Values Model.Outcome Model.Ast Model.Interp
  Model.ExprTrans Spec.Expr Generated.Tables Proofs.ValueProofs Proofs.ForallAll.
Open Scope N_scope.

(* induction on expressions with a hypothesis for every item, entry and access *)
Section ExprInd.
  Variables (P : expr -> Prop) (Q : access -> Prop).
  Hypotheses (HNull : P ENull) (HBool : forall x, P (EBool x)) (HInt : forall z, P (EInt z)) (HFloat : forall f, P (EFloat f))
    (HStr : forall s, P (EStr s)) (HList : forall es, Forall P es -> P (EList es))
    (HMap : forall kvs, Forall (fun kv => P (snd kv)) kvs -> P (EMap kvs)) (HGlobal : forall n, P (EGlobal n))
    (HRef : forall k accs, Forall Q accs -> P (ERef k accs)) (HIj : forall accs, Forall Q accs -> P (EIj accs))
    (HCall : forall f args, Forall P args -> P (ECall f args)) (HNeg : forall a, P a -> P (ENeg a)) (HNot : forall a, P a -> P (ENot a))
    (HBin : forall op a c, P a -> P c -> P (EBin op a c)) (HElvis : forall a c, P a -> P c -> P (EElvis a c))
    (HTern : forall c a d, P c -> P a -> P d -> P (ETern c a d))
    (HKey : forall ns k, Q (AKey ns k)) (HIdx : forall ns i, Q (AIdx ns i)) (HExpr : forall ns e, P e -> Q (AExpr ns e)).

  Fixpoint expr_nested_ind (e : expr) : P e :=
    match e with
    | ENull => HNull | EBool x => HBool x | EInt z => HInt z | EFloat f => HFloat f | EStr s => HStr s
    | EList es => HList es (Forall_all P expr_nested_ind es)
    | EMap kvs => HMap kvs (Forall_all _ (fun kv => expr_nested_ind (snd kv)) kvs)
    | EGlobal n => HGlobal n
    | ERef k accs => HRef k accs (Forall_all Q access_nested_ind accs)
    | EIj accs => HIj accs (Forall_all Q access_nested_ind accs)
    | ECall f args => HCall f args (Forall_all P expr_nested_ind args)
    | ENeg a => HNeg a (expr_nested_ind a) | ENot a => HNot a (expr_nested_ind a)
    | EBin op a c => HBin op a c (expr_nested_ind a) (expr_nested_ind c)
    | EElvis a c => HElvis a c (expr_nested_ind a) (expr_nested_ind c)
    | ETern c a d => HTern c a d (expr_nested_ind c) (expr_nested_ind a) (expr_nested_ind d)
    end
  with access_nested_ind (a : access) : Q a :=
    match a with AKey ns k => HKey ns k | AIdx ns i => HIdx ns i | AExpr ns e => HExpr ns e (expr_nested_ind e) end.
End ExprInd.

Lemma map_map_Forall {A B C} (f : A -> B) (g : B -> C) (h : A -> C) l :
  Forall (fun x => g (f x) = h x) l -> map g (map f l) = map h l.
Proof. intros H. rewrite map_map. apply map_ext_Forall, H. Qed.

Definition frame_eq (s s' : mstate) : Prop :=
  ctx s' = ctx s /\ mode s' = mode s /\ tmpl s' = tmpl s /\ depth_ s' = depth_ s /\ out s' = out s /\
  bufs s' = bufs s /\ calls_left s' = calls_left s /\ bytes_left s' = bytes_left s /\
  shared_writes s' = shared_writes s.

Lemma frame_eq_refl s : frame_eq s s.
Proof. unfold frame_eq; repeat split. Qed.

Lemma frame_eq_trans s1 s2 s3 : frame_eq s1 s2 -> frame_eq s2 s3 -> frame_eq s1 s3.
Proof.
  unfold frame_eq. intros (a1&a2&a3&a4&a5&a6&a7&a8&a9) (b1&b2&b3&b4&b5&b6&b7&b8&b9).
  repeat split; congruence.
Qed.

Lemma frame_eq_set_cur s p : frame_eq s (set_cur s p).
Proof. unfold frame_eq, set_cur; cbn; repeat split. Qed.
Lemma frame_eq_bump_id s : frame_eq s (bump_id s).
Proof. unfold frame_eq, bump_id; cbn; repeat split. Qed.
Lemma frame_eq_bump_unbound s : frame_eq s (bump_unbound s).
Proof. unfold frame_eq, bump_unbound; cbn; repeat split. Qed.

(* [Rel] relates the Spec's intermediate result with the walker's (equality except inside data references) *)
Definition agree_r {A A'} (Rel : A -> A' -> Prop) (spec : outcome (A * N)) (m : M A') (st : mstate) : Prop :=
  match spec with
  | Ok (a, n') => exists a' st', m st = (Ok a', st') /\ Rel a a' /\ frame_eq st st' /\ next_id st' = n'
  | Err _ => exists msg st', m st = (Err msg, st') /\ frame_eq st st'
  | _ => True
  end.

Definition agree {A} (spec : outcome (A * N)) (m : M A) (st : mstate) : Prop :=
  match spec with
  | Ok (a, n') => exists st', m st = (Ok a, st') /\ frame_eq st st' /\ next_id st' = n'
  | Err _ => exists msg st', m st = (Err msg, st') /\ frame_eq st st'
  | _ => True
  end.

Lemma agree_r_eq {A} (spec : outcome (A * N)) (m : M A) st : agree_r eq spec m st <-> agree spec m st.
Proof.
  unfold agree_r, agree. destruct spec as [[a n']| | | | |]; try tauto.
  split.
  - intros (a'&st'&Hm&<-&Hf&Hn). eauto.
  - intros (st'&Hm&Hf&Hn). exists a, st'. auto.
Qed.

(* value-level: a Spec outcome against a model outcome *)
Definition orel {A} (so io : outcome A) : Prop :=
  match so with
  | Ok a => io = Ok a
  | Err _ => exists m, io = Err m
  | _ => True
  end.

Lemma orel_refl {A} (o : outcome A) : orel o o.
Proof. destruct o; cbn; eauto. Qed.

Lemma orel_bind {A B} (so io : outcome A) (sf jf : A -> outcome B) :
  orel so io -> (forall a, orel (sf a) (jf a)) -> orel (bind so sf) (bind io jf).
Proof.
  intros H Hf. destruct so as [a|em|em| | |]; cbn in *; try exact I.
  - subst io. cbn. apply Hf.
  - destruct H as [m' ->]. cbn. eauto.
Qed.

Section Sim.
Variable G : list (bstr * value).
Variable env : list (bstr * value).
Variable cf : cfg.

Definition env_ok (st : mstate) : Prop := forall k, sc_lookup (ctx st) k = assoc_s k env.

Lemma env_ok_frame s s' : frame_eq s s' -> env_ok s -> env_ok s'.
Proof. intros (Hc&_) H k. rewrite Hc. apply H. Qed.

Definition sim_r {A A'} (Rel : A -> A' -> Prop) (r : R A) (m : M A') : Prop :=
  forall st, env_ok st -> agree_r Rel (r (next_id st)) m st.
Definition sim {A} (r : R A) (m : M A) : Prop :=
  forall st, env_ok st -> agree (r (next_id st)) m st.

Lemma sim_r_eq {A} (r : R A) (m : M A) : sim_r eq r m <-> sim r m.
Proof. unfold sim_r, sim. split; intros H st Hst; apply agree_r_eq; auto. Qed.

Lemma sim_r_ret {A A'} (Rel : A -> A' -> Prop) x x' : Rel x x' -> sim_r Rel (rret x) (ret x').
Proof. intros HR st _. cbn. exists x', st. split; [reflexivity | split; [exact HR | split; [apply frame_eq_refl | reflexivity]]]. Qed.

Lemma sim_ret {A} (x : A) : sim (rret x) (ret x).
Proof. apply sim_r_eq. apply sim_r_ret. reflexivity. Qed.

Lemma sim_r_err {A A'} (Rel : A -> A' -> Prop) m : sim_r Rel (@rerr A) (@fail A' m).
Proof. intros st _. cbn. exists m, st. split; [reflexivity | apply frame_eq_refl]. Qed.

Lemma sim_err {A} m : sim (@rerr A) (@fail A m).
Proof. apply sim_r_eq. apply sim_r_err. Qed.

Lemma sim_r_bind {A A' B B'} (RA : A -> A' -> Prop) (RB : B -> B' -> Prop)
      (r : R A) (m : M A') (f : A -> R B) (g : A' -> M B') :
  sim_r RA r m -> (forall a a', RA a a' -> sim_r RB (f a) (g a')) -> sim_r RB (rbind r f) (mbind m g).
Proof.
  intros Hr Hf st Hst. specialize (Hr st Hst). unfold rbind, mbind, agree_r in *.
  destruct (r (next_id st)) as [[a n']| | | | |]; try exact I.
  - destruct Hr as (a'&st'&Hm&HR&Hfr&Hn). rewrite Hm.
    specialize (Hf a a' HR st' (env_ok_frame _ _ Hfr Hst)). rewrite Hn in Hf. unfold agree_r in Hf.
    destruct (f a n') as [[b n2]| | | | |]; try exact I.
    + destruct Hf as (b'&st2&Hg&HRb&Hfr2&Hn2). exists b', st2.
      split; [assumption | split; [assumption | split; [apply (frame_eq_trans _ _ _ Hfr Hfr2) | assumption]]].
    + destruct Hf as (msg&st2&Hg&Hfr2). exists msg, st2. split; [assumption|].
      apply (frame_eq_trans _ _ _ Hfr Hfr2).
  - destruct Hr as (msg&st'&Hm&Hfr). rewrite Hm. exists msg, st'. split; [reflexivity | assumption].
Qed.

Lemma sim_bind {A B} (r : R A) (m : M A) (f : A -> R B) (g : A -> M B) :
  sim r m -> (forall a, sim (f a) (g a)) -> sim (rbind r f) (mbind m g).
Proof.
  intros Hr Hf. apply sim_r_eq. apply (sim_r_bind eq eq); [apply sim_r_eq; exact Hr|].
  intros a a' <-. apply sim_r_eq. apply Hf.
Qed.

Lemma sim_lift {A} (so io : outcome A) : orel so io -> sim (rlift so) (lift io).
Proof.
  intros H st _. unfold rlift, lift. destruct so as [a|em|em| | |]; cbn in *; try exact I.
  - subst io. exists st. split; [reflexivity | split; [apply frame_eq_refl | reflexivity]].
  - destruct H as [m' ->]. exists m', st. split; [reflexivity | apply frame_eq_refl].
Qed.

(* a prefix of the walker that only moves cur / next_id / unbound *)
Lemma sim_pre {A} (r : R A) (m : M A) (h : mstate -> mstate) :
  (forall s, frame_eq s (h s) /\ next_id (h s) = next_id s) ->
  sim r m -> sim r (mbind (modify h) (fun _ => m)).
Proof.
  intros Hh Hm st Hst. destruct (Hh st) as [Hfr Hn].
  specialize (Hm (h st) (env_ok_frame _ _ Hfr Hst)). rewrite Hn in Hm.
  unfold mbind, modify, agree in *.
  destruct (r (next_id st)) as [[a n']| | | | |]; try exact I.
  - destruct Hm as (st'&Hm&Hfr'&Hn'). exists st'.
    split; [assumption | split; [apply (frame_eq_trans _ _ _ Hfr Hfr') | assumption]].
  - destruct Hm as (msg&st'&Hm&Hfr'). exists msg, st'. split; [assumption|].
    apply (frame_eq_trans _ _ _ Hfr Hfr').
Qed.

(* state.eval: the node register is put back *)
Lemma sim_eval (w : node -> M value) (r : R value) (n : node) :
  sim r (w n) -> sim r (eval w n).
Proof.
  intros Hw st Hst. specialize (Hw st Hst). unfold eval, mbind, get, modify, ret, agree in *.
  destruct (r (next_id st)) as [[a n']| | | | |]; try exact I.
  - destruct Hw as (st'&Hm&Hfr&Hn). rewrite Hm. eexists. split; [reflexivity|]. split.
    + apply (frame_eq_trans _ _ _ Hfr (frame_eq_set_cur _ _)).
    + cbn. assumption.
  - destruct Hw as (msg&st'&Hm&Hfr). rewrite Hm. exists msg, st'. split; [reflexivity | assumption].
Qed.

Lemma sim_evaldef (w : node -> M value) (ev : expr -> R value) (e : expr) (n : node) :
  sim (ev e) (w n) -> sim (ev_defined ev e) (evaldef w n).
Proof.
  intros Hw. unfold ev_defined, evaldef. apply sim_bind; [apply sim_eval; exact Hw|].
  intros [] ; cbn [is_undef]; try apply sim_ret. apply sim_err.
Qed.

Lemma sim_new_list_literal l : sim (new_list_literal l) (fresh_list l).
Proof.
  intros st _. unfold new_list_literal, fresh_list. destruct l; cbn.
  - exists st. split; [reflexivity | split; [apply frame_eq_refl | reflexivity]].
  - exists (bump_id st). split; [reflexivity | split; [apply frame_eq_bump_id | reflexivity]].
Qed.

Lemma sim_new_list_result l : sim (new_list_result l) (fresh_list_or_nil l).
Proof.
  intros st _. unfold new_list_result, fresh_list_or_nil. destruct l; cbn.
  - exists st. split; [reflexivity | split; [apply frame_eq_refl | reflexivity]].
  - exists (bump_id st). split; [reflexivity | split; [apply frame_eq_bump_id | reflexivity]].
Qed.

Lemma sim_new_map m : sim (new_map m) (fresh_map m).
Proof.
  intros st _. unfold new_map, fresh_map. cbn.
  exists (bump_id st). split; [reflexivity | split; [apply frame_eq_bump_id | reflexivity]].
Qed.

Lemma sim_spec_ext {A} (r r' : R A) (m : M A) : (forall n, r n = r' n) -> sim r m -> sim r' m.
Proof. intros H Hs st Hst. rewrite <- H. apply Hs. exact Hst. Qed.

Lemma sim_lookup k : sim (rret (lookup env k)) (m_lookup k).
Proof.
  intros st Hst. unfold agree, m_lookup, lookup, rret. rewrite (Hst k).
  destruct (assoc_s k env).
  - exists st. split; [reflexivity | split; [apply frame_eq_refl | reflexivity]].
  - exists (bump_unbound st). split; [reflexivity | split; [apply frame_eq_bump_unbound | reflexivity]].
Qed.

End Sim.

Lemma wrap64_id z : in_int64 z = true -> wrap64 z = z.
Proof.
  unfold in_int64, wrap64, two63, two64. intros H.
  apply andb_true_iff in H. destruct H as [H1 H2].
  apply Z.leb_le in H1. apply Z.ltb_lt in H2.
  rewrite Z.mod_small; lia.
Qed.

Lemma int_result_wrap z : orel (int_result z) (Ok (VInt (wrap64 z))).
Proof.
  unfold int_result. destruct (in_int64 z) eqn:H; cbn; [|exact I].
  rewrite (wrap64_id _ H). reflexivity.
Qed.

Lemma number_of_to_float v : orel (number_of v) (to_float v).
Proof.
  destruct v; cbn; eauto.
  destruct (fl_of_int z); cbn; eauto.
Qed.

Lemma float_result_of_fl o : orel (float_result o) (of_fl o).
Proof. destruct o; cbn; eauto. Qed.

Lemma float_op_rel f a c :
  orel (x <- number_of a ;; y <- number_of c ;; float_result (f x y)) (float_op f a c).
Proof.
  unfold float_op. apply orel_bind; [apply number_of_to_float|]. intros x.
  apply orel_bind; [apply number_of_to_float|]. intros y. apply float_result_of_fl.
Qed.

Lemma Zcompare_flip x y : (y ?= x)%Z = CompOpp (x ?= y)%Z.
Proof. apply Z.compare_antisym. Qed.

Lemma fl_cmp_flip x y : fl_cmp y x = match fl_cmp x y with Some c => Some (CompOpp c) | None => None end.
Proof.
  destruct x as [| a | a | m1 e1], y as [| c | c | m2 e2]; cbn; try reflexivity.
  - destruct a, c; reflexivity.
  - destruct a; reflexivity.
  - destruct a; reflexivity.
  - destruct c; reflexivity.
  - destruct (m2 <? 0)%Z; reflexivity.
  - destruct c; reflexivity.
  - destruct (m1 <? 0)%Z; reflexivity.
  - rewrite (Z.min_comm e2 e1). rewrite Zcompare_flip. reflexivity.
Qed.

Lemma order_rel op a c : match op with BLt | BGt | BLe | BGe => True | _ => False end ->
  orel (sem_order op a c) (compare_op (binop_of op) a c).
Proof.
  intros Hop. unfold sem_order, compare_op.
  apply orel_bind; [apply number_of_to_float|]. intros x.
  apply orel_bind; [apply number_of_to_float|]. intros y.
  cbn. f_equal. f_equal.
  unfold fl_ltb, fl_leb. rewrite (fl_cmp_flip x y).
  destruct op; try contradiction; cbn [binop_of]; destruct (fl_cmp x y) as [[]|]; reflexivity.
Qed.

Lemma add_rel a c : orel (sem_add a c) (arith OAdd a c).
Proof.
  unfold sem_add, arith.
  destruct a, c; cbn [is_str orb]; try apply float_op_rel; try apply orel_refl.
  apply int_result_wrap.
Qed.

Lemma sub_rel a c : orel (sem_int_or_float Z.sub fl_sub_r a c) (arith OSub a c).
Proof.
  unfold sem_int_or_float, arith. destruct a, c; try apply float_op_rel. apply int_result_wrap.
Qed.

Lemma mul_rel a c : orel (sem_int_or_float Z.mul fl_mul_r a c) (arith OMul a c).
Proof.
  unfold sem_int_or_float, arith. destruct a, c; try apply float_op_rel. apply int_result_wrap.
Qed.

Lemma mod_rel a c : orel (sem_mod a c) (arith OMod a c).
Proof.
  unfold sem_mod, arith, no_value. destruct a, c; cbn; eauto.
  destruct (z0 =? 0)%Z; cbn; eauto. apply int_result_wrap.
Qed.

Lemma strict_rel op a c :
  match op with BEq | BNe | BAnd | BOr => False | _ => True end ->
  orel (sem_strict op a c)
       (match op with
        | BLt | BGt | BLe | BGe => compare_op (binop_of op) a c
        | _ => arith (binop_of op) a c
        end).
Proof.
  intros Hop. destruct op; try contradiction; cbn [sem_strict binop_of].
  - apply mul_rel.
  - unfold sem_div, arith. apply float_op_rel.
  - apply mod_rel.
  - apply add_rel.
  - apply sub_rel.
  - apply (order_rel BLt); exact I.
  - apply (order_rel BGt); exact I.
  - apply (order_rel BLe); exact I.
  - apply (order_rel BGe); exact I.
Qed.

Lemma neg_rel v : orel (sem_neg v)
  (match v with VInt z => Ok (VInt (wrap64 (- z))) | VFloat f => Ok (VFloat (fl_neg f)) | _ => Err e_notnumber end).
Proof. destruct v; cbn; eauto. apply int_result_wrap. Qed.

Lemma element_list_index l i : element l i = list_index l i.
Proof.
  unfold element, list_index.
  destruct (i <? 0)%Z eqn:Hneg; destruct (0 <=? i)%Z eqn:Hpos; cbn [andb orb]; try lia; try reflexivity.
  destruct (Z.of_nat (length l) <=? i)%Z eqn:Hhi; destruct (i <? Z.of_nat (length l))%Z eqn:Hlo; try lia; try reflexivity.
  assert (Hlt : (Z.to_nat i < length l)%nat) by lia.
  destruct (nth_error l (Z.to_nat i)) eqn:Hn.
  - apply nth_error_nth. exact Hn.
  - apply nth_error_None in Hn. lia.
Qed.

Lemma entry_map_key m k : entry m k = map_key m k.
Proof. reflexivity. Qed.

