(* C15, template level with special-character commands: scanner model and parser model composed on
   T0 {c1} T1 {c2} T2 ... (Spec/TextBody.v).  A stretch in which the Spec finds no comment is a stretch of
   Spec/TextMix.v that is one piece, so these bodies are among those of Proofs/BodyMixMain.v. *)
From Soy Require Import Proofs.RawTextProofs Model.Bytes Model.Outcome Model.Ast Model.Token Model.Parser Model.Lexer Spec.Text Spec.TextBody Spec.TextMix
  Proofs.BodyTextSpec Proofs.LexTokens Proofs.LexBodySeg Proofs.ParseBodyText Proofs.BodyMixMain.
Open Scope N_scope.

(* a text that is one piece has no comment, so none that is open at its end *)
Lemma one_piece_closed : forall T pw cur x, pieces MText pw cur T = Some [x] -> line_open MText pw T = false.
Proof.
  induction T as [|c r IH]; intros pw cur x Hp; [reflexivity|].
  assert (Hcons : forall m', cons_opt (rev cur) (pieces m' false [] r) = Some [x] -> False).
  { intros m' H. destruct (cons_opt_inv _ _ _ H) as (r0 & Hr & E). injection E as _ <-. exact (pieces_nonempty _ _ _ _ _ Hr eq_refl). }
  cbn [pieces line_open] in *. destruct (c =? 47); [|exact (IH _ _ _ Hp)].
  destruct r as [|d r2]; [reflexivity|]. destruct (d =? 42).
  - exfalso. destruct r2 as [|e r3]; [discriminate|].
    destruct ((e =? 42) && negb (match r3 with f :: _ => f =? 47 | [] => false end)); [discriminate|exact (Hcons _ Hp)].
  - destruct ((d =? 47) && pw); [exfalso; exact (Hcons _ Hp)|exact (IH _ _ _ Hp)].
Qed.

Lemma stretch_mix start last T : stretch_ok start T ->
  mix_stretch_ok start last T /\ body_text start T = Some (normalize false false T).
Proof.
  intros [Hpl Hp]. split; [split; [exact Hpl|intros _; exact (one_piece_closed _ _ _ _ Hp)]|].
  unfold body_text. rewrite Hp. reflexivity.
Qed.

Lemma rest_mix : forall rest, Forall seg_ok rest -> mix_rest_ok rest /\ mix_rest_out rest = Some (rest_out rest).
Proof.
  induction rest as [|[[n o] T] r IH]; intros H; [split; [exact I|reflexivity]|].
  inversion H as [|? ? [Hc HT] Hr]; subst. destruct (IH Hr) as [Hok Hout]. cbn [fst snd] in *.
  destruct (stretch_mix false (match r with [] => true | _ => false end) T HT) as [HT' Hb].
  split; [cbn [mix_rest_ok]; auto|]. cbn [mix_rest_out rest_out]. rewrite Hb, Hout. cbn [app_opt]. rewrite <- app_assoc. reflexivity.
Qed.

Section Main.
Variable uni_letter uni_digit : Z -> bool.
Hypothesis letter_ascii : forall c, (c < 128)%N -> uni_letter (Z.of_N c) = ((65 <=? c) && (c <=? 90) || (97 <=? c) && (c <=? 122))%N.
Hypothesis digit_ascii : forall c, (c < 128)%N -> uni_digit (Z.of_N c) = digit_b c.
Hypothesis letter_eof : uni_letter (-1)%Z = false.
Hypothesis digit_eof : uni_digit (-1)%Z = false.
Variable inlen : N.
Variable lexq : bstr -> list tok.
Variable unq : bstr -> option bstr.

Theorem body_cmds_impl_spec T0 rest : stretch_ok true T0 -> Forall seg_ok rest ->
  exists items pos nodes st,
    lex_items uni_letter uni_digit (lex_budget (body_src T0 rest)) false (body_src T0 rest) = Ok items /\
    po_result (soy_file inlen lexq unq items) = POk (NList pos nodes) st /\
    Forall is_raw nodes /\ concat (map raw_text_of nodes) = body_out T0 rest.
Proof.
  intros H0 Hrest. destruct (stretch_mix true (match rest with [] => true | _ => false end) T0 H0) as [Hok0 Hb0].
  destruct (rest_mix rest Hrest) as [Hokr Houtr].
  apply (body_mix_impl_spec uni_letter uni_digit letter_ascii digit_ascii letter_eof digit_eof inlen lexq unq T0 rest);
    [split; assumption|]. unfold mix_body_out, body_out. rewrite Hb0, Houtr. reflexivity.
Qed.

Corollary cmd_alone_impl_spec c : cmd_ok c ->
  exists items pos nodes st,
    lex_items uni_letter uni_digit (lex_budget ([123] ++ fst c ++ [125])) false ([123] ++ fst c ++ [125]) = Ok items /\
    po_result (soy_file inlen lexq unq items) = POk (NList pos nodes) st /\
    Forall is_raw nodes /\ concat (map raw_text_of nodes) = snd c.
Proof.
  intros Hc. destruct c as [name out].
  destruct (body_cmds_impl_spec [] [((name, out), [])]) as (items & pos & nodes & st & A & B & C & D).
  - split; [constructor|reflexivity].
  - constructor; [|constructor]. split; [exact Hc|]. split; [constructor|reflexivity].
  - exists items, pos, nodes, st. split; [exact A|]. split; [exact B|]. split; [exact C|]. rewrite D. apply app_nil_r.
Qed.

End Main.
