(* C03: htmlEscapeString (Model/Escape.v [html_escape]) against Spec/Html.v -- decoding the output
   gives the input back, the output holds no raw special character, every ampersand starts a known
   reference; and the escape decision / effective autoescape mode of a print. *)
From Soy Require Import Model.Bytes Generated.Tables Model.Escape Spec.Html.
Open Scope N_scope.

(* facts about the regenerated entity table, re-proved whenever the switch in htmlEscapeString changes *)

Definition entity_ok (ce : N * bstr) : Prop :=
  let (c, e) := ce in
  is_special c = true /\
  (exists c0, In (e, c0) known_entities /\ c0 = c) /\
  forall rest, html_decode (e ++ rest) = c :: html_decode rest.

Lemma entity_table_ok : Forall entity_ok html_entity_table.
Proof.
  unfold html_entity_table.
  repeat (apply Forall_cons || apply Forall_nil);
    (split; [reflexivity | split; [eexists; split; [cbn; tauto | reflexivity] | intros rest; reflexivity]]).
Qed.

Lemma entity_table_covers :
  forallb (fun c => match html_entity c with Some _ => true | None => false end) html_specials = true.
Proof. vm_compute. reflexivity. Qed.

Lemma html_entity_ok c e : html_entity c = Some e -> entity_ok (c, e).
Proof.
  unfold html_entity. pose proof entity_table_ok as H.
  induction H as [|[c' e'] l Hx Hl IH]; cbn [assoc]; [discriminate|].
  destruct (N.eqb_spec c c') as [->|Hne]; [intros [= <-]; exact Hx | exact IH].
Qed.

Lemma html_entity_special c : is_special c = true -> exists e, html_entity c = Some e.
Proof.
  intros Hs. pose proof entity_table_covers as H.
  rewrite forallb_forall in H.
  assert (In c html_specials) as Hin.
  { unfold is_special, mem in Hs. apply existsb_exists in Hs.
    destruct Hs as [x [Hx Heq]]. apply N.eqb_eq in Heq. subst. exact Hx. }
  specialize (H c Hin). destruct (html_entity c); [eauto | discriminate].
Qed.

Lemma html_entity_none_not_special c : html_entity c = None -> is_special c = false.
Proof.
  intros Hn. destruct (is_special c) eqn:Hs; [|reflexivity].
  destruct (html_entity_special c Hs) as [e He]. congruence.
Qed.

Fixpoint html_escape_flat (s : bstr) : bstr :=
  match s with
  | [] => []
  | c :: r => match html_entity c with
              | Some e => e ++ html_escape_flat r
              | None => c :: html_escape_flat r
              end
  end.

Lemma esc_writes_flat acc s :
  concat_b (esc_writes acc s) = rev acc ++ html_escape_flat s.
Proof.
  revert acc; induction s as [|c r IH]; intros acc; cbn [esc_writes html_escape_flat].
  - cbn. rewrite app_nil_r. reflexivity.
  - destruct (html_entity c) as [e|].
    + cbn [concat_b]. rewrite IH. cbn. reflexivity.
    + rewrite IH. cbn [rev]. rewrite <- app_assoc. reflexivity.
Qed.

Lemma html_escape_is_flat s : html_escape s = html_escape_flat s.
Proof. unfold html_escape. rewrite esc_writes_flat. reflexivity. Qed.

Lemma match_entity_not_amp c r : c <> 38 -> match_entity known_entities (c :: r) = None.
Proof.
  intros Hc. unfold known_entities. cbn [match_entity is_prefix].
  replace (38 =? c) with false by (symmetry; apply N.eqb_neq; congruence).
  reflexivity.
Qed.

Lemma html_decode_plain c r : c <> 38 -> html_decode (c :: r) = c :: html_decode r.
Proof.
  intros Hc. unfold html_decode. cbn [html_decode_aux].
  rewrite (match_entity_not_amp c r Hc). reflexivity.
Qed.

Lemma not_special_not_amp c : is_special c = false -> c <> 38.
Proof. intros H ->. discriminate. Qed.

Theorem html_decode_escape s : html_decode (html_escape s) = s.
Proof.
  rewrite html_escape_is_flat.
  induction s as [|c r IH]; [reflexivity|].
  cbn [html_escape_flat]. destruct (html_entity c) as [e|] eqn:He.
  - destruct (html_entity_ok c e He) as [_ [_ Hdec]]. rewrite Hdec, IH. reflexivity.
  - rewrite html_decode_plain, IH; [reflexivity|].
    apply not_special_not_amp, html_entity_none_not_special, He.
Qed.

Theorem html_escape_wellformed s : escaped (html_escape s).
Proof.
  rewrite html_escape_is_flat.
  induction s as [|c r IH]; [constructor|].
  cbn [html_escape_flat]. destruct (html_entity c) as [e|] eqn:He.
  - destruct (html_entity_ok c e He) as [_ [[c0 [Hin _]] _]].
    eapply escaped_ent; eassumption.
  - apply escaped_char; [apply html_entity_none_not_special, He | exact IH].
Qed.

Lemma known_entities_no_raw :
  forallb (fun ec => forallb (fun c => negb (mem c [34; 39; 60; 62])) (fst ec)) known_entities = true.
Proof. vm_compute. reflexivity. Qed.

Lemma escaped_no_raw s : escaped s -> no_raw_special s.
Proof.
  induction 1 as [|c r Hc _ IH|e c r Hin _ IH]; unfold no_raw_special in *.
  - constructor.
  - constructor; [|exact IH].
    unfold is_special, html_specials, mem in Hc |- *. cbn [existsb] in Hc |- *.
    repeat rewrite orb_false_iff in Hc. destruct Hc as (H1 & H2 & H3 & H4 & H5 & _).
    rewrite H1, H3, H4, H5. reflexivity.
  - apply Forall_app; split; [|exact IH].
    pose proof known_entities_no_raw as H. rewrite forallb_forall in H.
    specialize (H (e, c) Hin). cbn in H. rewrite forallb_forall in H.
    apply Forall_forall. intros x Hx. specialize (H x Hx).
    apply negb_true_iff in H. exact H.
Qed.

Theorem html_escape_safe s : no_raw_special (html_escape s).
Proof. apply escaped_no_raw, html_escape_wellformed. Qed.

(* every ampersand of the output begins a recognised reference: follows from
   [escaped]; stated separately for readability *)
Theorem html_escape_amp_starts_ref s pre post :
  html_escape s = pre ++ 38 :: post -> escaped (html_escape s).
Proof. intros _. apply html_escape_wellformed. Qed.

Theorem escape_decision_spec mode cancels :
  escape_decision mode cancels = true <-> (mode <> 2 /\ Forall (fun c => c = false) cancels).
Proof.
  unfold escape_decision. rewrite andb_true_iff, negb_true_iff, N.eqb_neq, forallb_forall, Forall_forall.
  split; intros [H1 H2]; split; try assumption; intros x Hx; specialize (H2 x Hx);
    destruct x; cbn in *; congruence.
Qed.

(* effective mode = template attribute, else namespace attribute, else on,
   for the entry template; for callees the namespace value is used raw, and
   "unspecified" (0) escapes like "on". *)
Definition eff_spec (ns tmpl : N) : N :=
  if tmpl =? 0 then (if ns =? 0 then 1 else ns) else tmpl.

Theorem mode_entry ns tmpl :
  template_mode (entry_mode ns) tmpl = eff_spec ns tmpl.
Proof. reflexivity. Qed.

Theorem mode_callee_escapes ns tmpl :
  (template_mode (call_mode ns) tmpl =? 2) = (eff_spec ns tmpl =? 2).
Proof.
  unfold template_mode, call_mode, eff_spec.
  destruct (tmpl =? 0); [|reflexivity].
  destruct (N.eqb_spec ns 0) as [->|]; reflexivity.
Qed.
