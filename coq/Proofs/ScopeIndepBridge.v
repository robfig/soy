(* C02 composed with C01, part 2: an expression node that [of_node] reads back
   as the Spec expression [x] is evaluated by Spec/Cmd.v exactly like
   [to_node [] x] (positions and quoted source text carry no meaning), and --
   through the walker: exec_impl_spec's expression clause, the fuel monotonicity
   of the walker (C06) and C01's eval_impl_spec -- in agreement with
   Spec/Expr.v's eval_spec. *)
From Coq Require Import Lia.
From Soy Require Import Model.Bytes Model.Num Model.Values Model.Outcome Model.Ast
  Model.Escape Model.Directives Model.Print Generated.Tables Model.Interp Model.ExprTrans
  Spec.Expr Spec.Cmd Spec.CmdIndep
  Proofs.InterpLogic Proofs.ValueProofs Proofs.ScopeRel Proofs.ScopeExprProofs Proofs.ScopeProofs
  Proofs.ScopeIndepProofs Proofs.EvalProofs Proofs.EvalMainProofs Proofs.EvalSyntaxProofs Proofs.EvalTotalProofs
  Proofs.EvalFuncProofs Proofs.SafetyMono.
Open Scope N_scope.

(* the children of a node that [of_node] reads back, one by one: [P] holds of each pair *)
Lemma mapM_Forall2 {A B} (f : A -> option B) (P : A -> B -> Prop) (h : B -> nat) k l : forall ys,
  (forall a y, f a = Some y -> (h y <= k)%nat -> P a y) ->
  mapM f l = Some ys -> (max_list (map h ys) <= k)%nat -> Forall2 P l ys.
Proof.
  intros ys HP. revert ys. unfold max_list. induction l as [|a l IH]; intros ys H Hk; cbn [mapM] in H.
  - injection H as <-. constructor.
  - destruct (f a) as [y|] eqn:E; [|discriminate]. destruct (mapM f l) as [ys'|]; [|discriminate].
    injection H as <-. cbn [map fold_right] in Hk. constructor; [apply HP; [exact E | lia] | apply IH; [reflexivity | lia]].
Qed.

(* ... and what holds of each pair holds of the lists *)
Lemma Forall2_ok {A B C} (P Q : A -> B -> Prop) (g1 : B -> bool) (h : B -> C) (g2 : C -> bool) l ys :
  (forall a y, P a y -> g1 y = true /\ g2 (h y) = true /\ Q a y) -> Forall2 P l ys ->
  forallb g1 ys = true /\ forallb g2 (map h ys) = true /\ Forall2 Q l ys.
Proof.
  intros HP. induction 1 as [|a y l ys Hp _ (I1 & I2 & I3)]; [repeat split; constructor|].
  destruct (HP _ _ Hp) as (H1 & H2 & H3). cbn [forallb map]. rewrite H1, H2, I1, I2. repeat split. constructor; assumption.
Qed.

Lemma Forall2_length {A B} (P : A -> B -> Prop) l ys : Forall2 P l ys -> length l = length ys.
Proof. induction 1; cbn; congruence. Qed.

Lemma ebind_ext {A B} (e1 e2 : E A) (k1 k2 : A -> E B) :
  (forall n, e1 n = e2 n) -> (forall x n, k1 x n = k2 x n) -> forall n, ebind e1 k1 n = ebind e2 k2 n.
Proof.
  intros He Hk n. unfold ebind, bind. rewrite He. destruct (e2 n) as [[x n']| | | | | ]; try reflexivity. apply Hk.
Qed.

Lemma fn_of_name_sound name f : fn_of_name name = Some f -> fn_name f = name.
Proof.
  unfold fn_of_name. intros H. apply find_some in H. destruct H as [_ H].
  destruct (bstr_eqb_spec (fn_name f) name); [assumption | discriminate].
Qed.

Lemma bop_of_sound op o : bop_of op = Some o -> binop_of o = op.
Proof. destruct op; cbn; intros H; inversion H; reflexivity. Qed.

Lemma distinct_keys_eq ks : distinct_keys ks = ExprTrans.distinct ks.
Proof. induction ks as [|k r IH]; cbn; [reflexivity | rewrite IH; reflexivity]. Qed.

Lemma option_map_some {A B} (g : A -> B) o y : option_map g o = Some y -> exists a, o = Some a /\ y = g a.
Proof. destruct o as [a|]; cbn; intros H; inversion H. exists a. split; reflexivity. Qed.

Section Pos.
Variable cf : cfg.

(* Spec/Cmd.v evaluates [a] like the tree of [y], at every level and in every environment *)
Definition same_eval (a : node) (y : expr) : Prop :=
  forall f en nid, l_eval (spec_level cf f) en a nid = l_eval (spec_level cf f) en (to_node [] y) nid.

(* at level 0 both sides are out of fuel: only the clause [eval_body] matters *)
Lemma same_eval_body a y :
  (forall f en nid, eval_body cf (spec_level cf f) en a nid = eval_body cf (spec_level cf f) en (to_node [] y) nid) ->
  same_eval a y.
Proof. intros H [|f] en nid; [reflexivity | apply H]. Qed.

Lemma ev_list_pos items xs : Forall2 same_eval items xs ->
  forall f en nid, ev_list (spec_level cf f) en items nid = ev_list (spec_level cf f) en (map (to_node []) xs) nid.
Proof.
  induction 1 as [|a y items xs Hp Hf IH]; intros f en nid; cbn [ev_list map]; [reflexivity|].
  apply ebind_ext; [apply Hp|]. intros v n. apply ebind_ext; [apply IH | reflexivity].
Qed.

Lemma maplit_pos (items : list (bstr * node)) (kvs : list (bstr * expr)) :
  Forall2 (fun kv ky => fst ky = fst kv /\ same_eval (snd kv) (snd ky)) items kvs ->
  forall f en nid, maplit_spec (spec_level cf f) en items nid =
                   maplit_spec (spec_level cf f) en (map (fun kv => (fst kv, to_node [] (snd kv))) kvs) nid.
Proof.
  induction 1 as [|[k a] [k' y] items kvs [Hk Hp] Hf IH]; intros f en nid; cbn [maplit_spec map fst snd]; [reflexivity|].
  cbn [fst snd] in Hk, Hp. subst k'.
  apply ebind_ext; [apply Hp|]. intros v n. apply ebind_ext; [apply IH | reflexivity].
Qed.

Definition same_acc (a : node) (y : access) : Prop :=
  match y with
  | AKey ns k => exists p, a = NAccKey p ns k
  | AIdx ns i => exists p, a = NAccIndex p ns i
  | AExpr ns e => exists p a', a = NAccExpr p ns a' /\ same_eval a' e
  end.

Lemma access_pos accs ys : Forall2 same_acc accs ys ->
  forall f en ref nid, access_spec (spec_level cf f) en accs ref nid = access_spec (spec_level cf f) en (map (acc_node []) ys) ref nid.
Proof.
  induction 1 as [|a y accs ys Hp Hf IH]; intros f en ref nid; cbn [access_spec map]; [reflexivity|].
  destruct y as [ns k|ns i|ns e]; cbn [same_acc acc_node] in Hp |- *;
    [destruct Hp as [p ->] | destruct Hp as [p ->] | destruct Hp as (p & a' & -> & Hs)];
    (apply ebind_ext;
     [|intros [oi k0] n; cbn [is_nullsafe]; destruct ref; try reflexivity; destruct oi; try reflexivity; apply IH]).
  - reflexivity.
  - reflexivity.
  - intros n. apply ebind_ext; [apply Hs | reflexivity].
Qed.

(* [x] is well-formed on both sides, and positions and quoted source text carry no meaning *)
Definition pos_ok (n : node) (x : expr) : Prop :=
  ExprTrans.wf_expr [] x = true /\ wf KExpr (to_node [] x) = true /\ same_eval n x.

Lemma pos_ok_body n x : ExprTrans.wf_expr [] x = true -> wf KExpr (to_node [] x) = true ->
  (forall f en nid, eval_body cf (spec_level cf f) en n nid = eval_body cf (spec_level cf f) en (to_node [] x) nid) ->
  pos_ok n x.
Proof. intros H1 H2 H3. exact (conj H1 (conj H2 (same_eval_body n x H3))). Qed.

Lemma evdef_pos a y : same_eval a y ->
  forall f en nid, evdef (spec_level cf f) en a nid = evdef (spec_level cf f) en (to_node [] y) nid.
Proof. intros H f en nid. unfold evdef. apply ebind_ext; [apply H | reflexivity]. Qed.

Lemma pos_ok_list k items xs :
  (forall n x, of_node n = Some x -> (height x <= k)%nat -> pos_ok n x) ->
  mapM of_node items = Some xs -> (S (max_list (map height xs)) <= S k)%nat ->
  forallb (ExprTrans.wf_expr []) xs = true /\ forallb (wf KExpr) (map (to_node []) xs) = true /\ Forall2 same_eval items xs.
Proof.
  intros IH Em Hh. apply (Forall2_ok pos_ok); [exact (fun _ _ H => H)|].
  exact (mapM_Forall2 _ _ height k _ _ IH Em (le_S_n _ _ Hh)).
Qed.

Lemma of_node_pos : forall k n x, of_node n = Some x -> (height x <= k)%nat -> pos_ok n x.
Proof.
  induction k as [|k IH]; intros n x Hof Hh.
  { pose proof (EvalMainProofs.height_pos x). lia. }
  destruct n; cbn [of_node] in Hof; try discriminate Hof;
    try (injection Hof as <-; repeat split; intros [|f0]; reflexivity).
  - destruct (fn_of_name name) as [fnn|] eqn:Efn; [|discriminate].
    apply option_map_some in Hof as (xs & Em & ->). apply fn_of_name_sound in Efn as <-.
    destruct (pos_ok_list k _ _ IH Em Hh) as (W1 & W2 & Ev).
    apply pos_ok_body; [exact W1 | exact W2 | intros f en nid; cbn [to_node eval_body]].
    rewrite (fn_not_loop fnn). unfold call_func_spec. rewrite map_length, <- (Forall2_length _ _ _ Ev).
    destruct (func_arities _) as [ar|]; [|reflexivity]. destruct (negb _); [reflexivity|].
    apply ebind_ext; [apply ev_list_pos, Ev | reflexivity].
  - apply option_map_some in Hof as (xs & Em & ->).
    destruct (pos_ok_list k _ _ IH Em Hh) as (W1 & W2 & Ev).
    apply pos_ok_body; [exact W1 | exact W2 | intros f en nid; cbn [to_node eval_body]].
    apply ebind_ext; [apply ev_list_pos, Ev | reflexivity].
  - destruct (distinct_keys (map fst items)) eqn:Ed; [|discriminate].
    apply option_map_some in Hof as (kvs & Em & ->).
    apply (mapM_Forall2 _ (fun kv ky => fst ky = fst kv /\ pos_ok (snd kv) (snd ky)) (fun ky => height (snd ky)) k) in Em;
      [| | exact (le_S_n _ _ Hh)].
    2:{ intros kv ky Ha Hk. apply option_map_some in Ha as (y & Ha & ->). split; [reflexivity | exact (IH _ _ Ha Hk)]. }
    destruct (Forall2_ok _ (fun kv ky => fst ky = fst kv /\ same_eval (snd kv) (snd ky))
                (fun ky => ExprTrans.wf_expr [] (snd ky)) (fun ky => (fst ky, to_node [] (snd ky))) (fun kv => wf KExpr (snd kv))
                _ _ (fun _ _ '(conj Hk (conj H1 (conj H2 H3))) => conj H1 (conj H2 (conj Hk H3))) Em) as (W1 & W2 & Ev).
    assert (Hkeys : map fst kvs = map fst items).
    { clear - Ev. induction Ev as [|kv ky l ys [Hk _] _ IH']; cbn [map]; [reflexivity | rewrite Hk, IH'; reflexivity]. }
    split; [|split].
    + cbn [ExprTrans.wf_expr]. rewrite Hkeys, <- distinct_keys_eq, Ed. exact W1.
    + exact W2.
    + apply same_eval_body. intros f en nid. cbn [to_node eval_body]. apply ebind_ext; [apply maplit_pos, Ev | reflexivity].
  - apply option_map_some in Hof as (ys & Em & ->).
    apply (mapM_Forall2 _ (fun a y => wf_access [] y = true /\ wf KAccess (acc_node [] y) = true /\ same_acc a y) acc_height k) in Em;
      [| | destruct (bstr_eqb key s_ij); exact (le_S_n _ _ Hh)].
    2:{ intros a y Ha Hk. destruct a; try discriminate Ha; try (injection Ha as <-; repeat split; eexists; reflexivity).
        apply option_map_some in Ha as (e & Ha & ->). destruct (IH _ _ Ha Hk) as (H1 & H2 & H3).
        repeat split; [exact H1 | exact H2 | exists p0, a; split; [reflexivity | exact H3]]. }
    destruct (Forall2_ok _ same_acc (wf_access []) (acc_node []) (wf KAccess) _ _ (fun _ _ H => H) Em) as (W1 & W2 & Ev).
    assert (Hs : same_eval (NDataRef p key access) (ERef key ys) /\ same_eval (NDataRef p s_ij access) (EIj ys)).
    { split; apply same_eval_body; intros f en nid; cbn [to_node eval_body];
        (apply ebind_ext; [reflexivity | intros ref n; apply access_pos, Ev]). }
    destruct (bstr_eqb key s_ij) eqn:Ek.
    + destruct (bstr_eqb_spec key s_ij) as [->|]; [|discriminate]. split; [exact W1|]. split; [exact W2 | apply Hs].
    + split; [cbn [ExprTrans.wf_expr]; rewrite Ek; exact W1|]. split; [exact W2 | apply Hs].
  - apply option_map_some in Hof as (y & Ey & ->). destruct (IH n y Ey (le_S_n _ _ Hh)) as (H1 & H2 & H3).
    apply pos_ok_body; [exact H1 | exact H2 | intros f en nid; cbn [to_node eval_body]].
    apply ebind_ext; [apply H3 | reflexivity].
  - apply option_map_some in Hof as (y & Ey & ->). destruct (IH n y Ey (le_S_n _ _ Hh)) as (H1 & H2 & H3).
    apply pos_ok_body; [exact H1 | exact H2 | intros f en nid; cbn [to_node eval_body]].
    apply ebind_ext; [apply evdef_pos, H3 | reflexivity].
  - destruct (of_node n1) as [y1|] eqn:E1; [|discriminate]. destruct (of_node n2) as [y2|] eqn:E2; [|discriminate].
    assert (Hx : to_node [] x = NBin op 0 (to_node [] y1) (to_node [] y2) /\
                 ExprTrans.wf_expr [] x = (ExprTrans.wf_expr [] y1 && ExprTrans.wf_expr [] y2) /\
                 height x = S (Nat.max (height y1) (height y2))).
    { destruct (bop_of op) as [o|] eqn:Eo; injection Hof as <-; cbn [to_node]; [rewrite (bop_of_sound _ _ Eo) | destruct op; try discriminate Eo];
        repeat split. }
    destruct Hx as (Hto & Hwx & Hhx). rewrite Hhx in Hh.
    destruct (IH n1 y1 E1 ltac:(lia)) as (A1 & A2 & A3). destruct (IH n2 y2 E2 ltac:(lia)) as (B1 & B2 & B3).
    split; [rewrite Hwx, A1, B1; reflexivity|]. split; [rewrite Hto; cbn [wf]; rewrite A2, B2; reflexivity|].
    apply same_eval_body. intros f en nid. rewrite Hto. cbn [eval_body].
    destruct op;
      try (apply ebind_ext; [apply evdef_pos, A3 | intros ? ?; apply ebind_ext; [apply evdef_pos, B3 | reflexivity]]);
      try (apply ebind_ext; [apply A3 | intros ? ?; apply ebind_ext; [apply B3 | reflexivity]]).
    + apply ebind_ext; [apply A3|]. intros v n. destruct (truthy v); [reflexivity|].
      apply ebind_ext; [apply B3 | reflexivity].
    + apply ebind_ext; [apply A3|]. intros v n. destruct (truthy v); [|reflexivity].
      apply ebind_ext; [apply B3 | reflexivity].
    + apply ebind_ext; [apply A3|]. intros v n. destruct (is_nullish v); [apply B3 | reflexivity].
  - destruct (of_node n1) as [y1|] eqn:E1; [|discriminate]. destruct (of_node n2) as [y2|] eqn:E2; [|discriminate].
    destruct (of_node n3) as [y3|] eqn:E3; [|discriminate]. injection Hof as <-. cbn [height] in Hh.
    destruct (IH n1 y1 E1 ltac:(lia)) as (A1 & A2 & A3). destruct (IH n2 y2 E2 ltac:(lia)) as (B1 & B2 & B3).
    destruct (IH n3 y3 E3 ltac:(lia)) as (C1 & C2 & C3).
    split; [cbn [ExprTrans.wf_expr]; rewrite A1, B1, C1; reflexivity|].
    split; [cbn [to_node wf]; rewrite A2, B2, C2; reflexivity|].
    apply same_eval_body. intros f en nid. cbn [to_node eval_body].
    apply ebind_ext; [apply A3|]. intros v n. destruct (truthy v); [apply B3 | apply C3].
Qed.

Lemma of_node_pos_ok n x : of_node n = Some x -> pos_ok n x.
Proof. intros H. exact (of_node_pos (height x) n x H (le_n _)). Qed.

Lemma expr_bridge f en n nid x :
  wf_registry (c_reg cf) = true -> of_node n = Some x ->
  cagree (sE (l_eval (spec_level cf f) en n) nid) (sE (Expr.eval_spec [] en (c_ij cf) x) nid).
Proof.
  intros Hreg Hof. destruct (of_node_pos_ok n x Hof) as (Hwx & Hwk & Hpos).
  unfold cagree, sE. cbn [fst snd]. rewrite Hpos.
  set (e' := to_node [] x) in *.
  set (st := init_state [{| f_vars := en; f_entered := true; f_origin := OFresh |}] 0 [] None None nid).
  assert (Hfl : ExprTrans.flatten (ctx st) = en) by (cbn; apply app_nil_r).
  assert (Hen : env_eq en (ScopeRel.flatten (ctx st))) by (cbn; rewrite app_nil_r; apply env_eq_refl).
  pose proof (ok_expr _ _ (walk_sim cf f Hreg) e' st en Hwk (conj eq_refl eq_refl) Hen) as Hsim.
  change (next_id st) with nid in Hsim.
  (* C01 at a budget that is enough for [x]; the walker's result carries over to it unless it was OutOfFuel *)
  set (F := Nat.max f (height x)).
  destruct (eval_impl_spec [] (c_ij cf) cf F x st eq_refl Hwx (Nat.le_max_r _ _)) as [HOk HErr].
  rewrite Hfl in HOk, HErr. change (next_id st) with nid in HOk, HErr.
  unfold rel in Hsim. cbn [sE fst snd] in Hsim.
  destruct (walk cf f e' st) as [r s1] eqn:Ew. cbn [fst snd] in Hsim.
  assert (Hmono : r <> OutOfFuel -> walk cf F (to_node [] x) st = (r, s1))
    by exact (walk_fuel_monotone cf f F e' st r s1 (Nat.le_max_l _ _) Ew).
  destruct (eval_spec_trichotomy [] en (c_ij cf) x nid) as [(v & n' & E) | [(m & E) | E]]; rewrite E;
    [destruct (HOk v n' E) as (st' & Hw & _ & Hn') | destruct (HErr m E) as (msg & st' & Hw & _) | right; left; reflexivity];
    (destruct (l_eval (spec_level cf f) en e' nid) as [[y n1]|?|?| | |]; cbn [classify] in Hsim; try (left; reflexivity);
     [destruct Hsim as (x0 & -> & _ & _ & Hn1 & [-> _]) | destruct Hsim as [-> _] ..];
     rewrite Hmono in Hw by discriminate; try discriminate Hw).
  - injection Hw as -> ->. right; right. split; [reflexivity|]. cbn. congruence.
  - right; right. split; [reflexivity | exact I].
Qed.

Theorem indep_levels_agree : wf_registry (c_reg cf) = true ->
  forall f, lv_agree (spec_level cf f) (indep_level cf f).
Proof.
  intros Hreg. induction f as [|f IH].
  - split; [|split]; intros; try apply cagree_refl.
    rewrite indep_level_0. cbn [indep0 l_eval]. unfold eval_indep. destruct (of_node e); [left; reflexivity | apply cagree_refl].
  - rewrite indep_level_S. split; [|split].
    + intros en e n. cbn [indep_next l_eval]. unfold eval_indep.
      destruct (of_node e) as [x|] eqn:Ho; [apply (expr_bridge (S f)); assumption | apply cagree_refl].
    + intros entry en md c n. apply (exec_body_agree cf _ _ IH).
    + intros entry en md c n. apply (let_body_agree _ _ IH).
Qed.
End Pos.

(* what the model's outcome is, given the composed Spec's: the same class; a
   Spec error may surface as the LineNumber slice panic inside errRecover (C19) *)
Definition outcome_class_agrees (m s : outcome unit) : Prop :=
  match s with
  | Ok _ => m = Ok tt
  | Err _ => (exists e, m = Err e) \/ m = Crash Interp.e_index
  | Crash c => m = Crash c
  | Diverge => m = Diverge
  | OutOfFuel => m = OutOfFuel
  | OutOfModel => m = OutOfModel
  end.

Theorem exec_impl_spec_indep_lemma cf fuel name data_id data first_id :
  wf_registry (c_reg cf) = true ->
  let r := render cf fuel name data_id data None None first_id in
  let s := render_spec_indep cf fuel name data first_id in
  rr_outcome r = OutOfFuel \/ sr_outcome s = OutOfModel \/
  (concat_b (rr_writes r) = sr_out s /\ outcome_class_agrees (rr_outcome r) (sr_outcome s)).
Proof.
  intros Hreg. cbv zeta.
  pose proof (exec_impl_spec_lemma cf fuel name data_id data first_id Hreg) as H. cbv zeta in H.
  destruct H as [Hb Ho].
  unfold render_spec_indep, render_spec in *.
  destruct (find_template (r_templates (c_reg cf)) name) as [t|] eqn:Ef.
  2:{ right; right. cbn [sr_out sr_outcome] in *. split; [exact Hb|].
      destruct Ho as [-> | (e & He & ->)]; [left; eexists; reflexivity | right; reflexivity]. }
  pose proof (proj1 (proj2 (indep_levels_agree cf Hreg fuel)) data data (entry_mode (t_ns_autoescape t)) (t_node t) first_id) as Ha.
  unfold exec_spec, exec_spec_indep in *.
  destruct (l_exec (spec_level cf fuel) data data (entry_mode (t_ns_autoescape t)) (t_node t) first_id) as [o1 r1].
  destruct (l_exec (indep_level cf fuel) data data (entry_mode (t_ns_autoescape t)) (t_node t) first_id) as [o2 r2].
  cbn [sr_out sr_outcome] in *. unfold cagree in Ha. cbn [fst snd] in Ha.
  destruct Ha as [-> | [-> | [-> Hc]]].
  - left. cbn [recast] in Ho. destruct Ho as [-> | (e & He & _)]; [reflexivity | discriminate He].
  - right; left. reflexivity.
  - right; right. split; [exact Hb|].
    destruct r1 as [[[] n1]|m1|m1| | |], r2 as [[[] n2]|m2|m2| | |]; cbn in Hc; try contradiction; cbn [recast outcome_class_agrees] in *.
    all: try subst m2; destruct Ho as [-> | (e & He & ->)]; try discriminate He; try reflexivity.
    + left. eexists. reflexivity.
    + right. reflexivity.
Qed.
