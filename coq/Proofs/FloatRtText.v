(* Float round trip, part 3: the text.  The four layouts of Num.fmt_g ('g' with the shortest digits:
   d.ddde+XX, 0.000ddd, ddd000, dd.ddd) are float literals of the scanner's syntax; NumLit.split_float
   takes them apart into the digits and the decimal exponent they were made from, and
   NumLit.float_of_lit hands round_ratio a fraction equal to digits * 10^-p. *)
From Soy Require Import Model.Bytes Model.Num Model.Utf8 Model.NumLit Proofs.NumLitProofs Proofs.MsgIdProofs
  Proofs.LiteralProofs Proofs.FloatRtRound Proofs.FloatRtDigits.
From Coq Require Import ZifyBool Lia.
Open Scope N_scope.

Definition rt_digs (l : bstr) : Prop := Forall is_digit_byte l.

Lemma rt_is_dec_digit c : is_digit_byte c -> is_dec_digit c = true.
Proof. unfold is_dec_digit, in_range, is_digit_byte. lia. Qed.

Definition rt_stops (r : bstr) : Prop := match r with [] => True | c :: _ => is_dec_digit c = false end.

Lemma rt_span_stop l r : rt_digs l -> rt_stops r -> span_digits (l ++ r) = (l, r).
Proof.
  intros Hl Hr. induction Hl as [|c l Hc Hl IH].
  - destruct r as [|c r]; [reflexivity|]. cbn [app span_digits]. cbn in Hr. rewrite Hr. reflexivity.
  - cbn [app span_digits]. rewrite (rt_is_dec_digit c Hc), IH. reflexivity.
Qed.

Lemma rt_span_all l : rt_digs l -> span_digits l = (l, []).
Proof. intros H. rewrite <- (app_nil_r l) at 1. apply rt_span_stop; [exact H|exact Logic.I]. Qed.

Lemma rt_dec_val_digits l : forall acc, rt_digs l -> digits_val 10 l acc = Some (dec_val l acc).
Proof.
  induction l as [|c l IH]; intros acc H; [reflexivity|]. inversion H as [|? ? Hc Hl]; subst.
  cbn [digits_val dec_val]. rewrite (digit_val_digit c Hc). unfold is_digit_byte in Hc.
  replace (c - 48 <? 10) with true by lia. apply IH. exact Hl.
Qed.

Lemma rt_dec_val_dec n : dec_val (dec_of_N n) 0 = n.
Proof.
  pose proof (digits_val_dec n) as E. rewrite rt_dec_val_digits in E by apply dec_of_N_digits. injection E as E. exact E.
Qed.

Lemma rt_dec_val_app l1 : forall l2 acc, dec_val (l1 ++ l2) acc = dec_val l2 (dec_val l1 acc).
Proof. induction l1 as [|c l1 IH]; intros l2 acc; [reflexivity|]. cbn [app dec_val]. apply IH. Qed.

Lemma rt_dec_val_zeros k : forall acc, dec_val (repeat 48 k) acc = acc * 10 ^ N.of_nat k.
Proof.
  induction k as [|k IH]; intros acc; [cbn [repeat dec_val]; change (N.of_nat 0) with 0; rewrite N.pow_0_r; lia|].
  cbn [repeat dec_val]. rewrite IH. rewrite Nat2N.inj_succ, N.pow_succ_r'. lia.
Qed.

Lemma rt_digs_zeros k : rt_digs (repeat 48 k).
Proof. induction k; constructor; [unfold is_digit_byte; lia|assumption]. Qed.

Lemma rt_digs_app l1 l2 : rt_digs l1 -> rt_digs l2 -> rt_digs (l1 ++ l2).
Proof. intros H1 H2. apply Forall_app. split; assumption. Qed.

Definition rt_fpart (fp : bstr) : bstr := match fp with [] => [] | _ => 46 :: fp end.
Definition rt_tail (hasexp eneg : bool) (ex : bstr) : bstr :=
  if hasexp then 101 :: (if eneg then 45 else 43) :: ex else [].
Definition rt_text (neg : bool) (ip fp : bstr) (hasexp eneg : bool) (ex : bstr) : bstr :=
  (if neg then [45] else []) ++ ip ++ rt_fpart fp ++ rt_tail hasexp eneg ex.

Lemma rt_split_sign (neg : bool) c s : is_digit_byte c ->
  split_float ((if neg then [45] else []) ++ c :: s) = split_rest neg (c :: s).
Proof.
  intros [H1 H2]. rewrite split_float_unfold. destruct neg; [reflexivity|]. cbn [app].
  destruct c as [|p]; [reflexivity|].
  do 6 (try (destruct p as [p|p|]; try reflexivity)). lia.
Qed.

Lemma rt_stops_tail hasexp eneg ex : rt_stops (rt_tail hasexp eneg ex).
Proof. destruct hasexp; [reflexivity|exact Logic.I]. Qed.

Lemma rt_stops_fpart fp r : rt_stops r -> rt_stops (rt_fpart fp ++ r).
Proof. destruct fp; [intros H; exact H|reflexivity]. Qed.

Lemma rt_split_text (neg : bool) (ip fp : bstr) (hasexp eneg : bool) (ex : bstr) :
  rt_digs ip -> ip <> [] -> rt_digs fp -> rt_digs ex ->
  (if hasexp then ex <> @nil N else eneg = false /\ ex = @nil N) ->
  split_float (rt_text neg ip fp hasexp eneg ex) =
  Some {| lit_neg := neg; lit_int := ip; lit_frac := fp; lit_eneg := eneg; lit_exp := ex |}.
Proof.
  intros Hip Hne Hfp Hex Hx. unfold rt_text.
  destruct ip as [|c ip']; [congruence|]. cbn [app].
  rewrite rt_split_sign by (inversion Hip; assumption). unfold split_rest.
  change (c :: ip' ++ rt_fpart fp ++ rt_tail hasexp eneg ex) with ((c :: ip') ++ rt_fpart fp ++ rt_tail hasexp eneg ex).
  set (ip := c :: ip') in *.
  rewrite (rt_span_stop ip _ Hip (rt_stops_fpart fp _ (rt_stops_tail hasexp eneg ex))).
  unfold ip. cbv beta iota.
  assert (Etail : forall fp0, split_after_frac neg (c :: ip') fp0 (rt_tail hasexp eneg ex) =
                              Some {| lit_neg := neg; lit_int := c :: ip'; lit_frac := fp0; lit_eneg := eneg; lit_exp := ex |}).
  { intros fp0. unfold split_after_frac. destruct hasexp; cbn [rt_tail].
    - destruct eneg; cbv beta iota; rewrite (rt_span_all ex Hex); destruct ex; [congruence|reflexivity|congruence|reflexivity].
    - destruct Hx as [-> ->]. reflexivity. }
  destruct fp as [|f fp'].
  - cbn [rt_fpart app]. destruct hasexp; cbn [rt_tail]; [|apply (Etail [])].
    change (match 101 :: (if eneg then 45 else 43) :: ex with
            | 46 :: s3 => _
            | _ => ?g
            end) with g. apply (Etail []).
  - cbn [rt_fpart app]. cbv beta iota.
    change (f :: fp' ++ rt_tail hasexp eneg ex) with ((f :: fp') ++ rt_tail hasexp eneg ex).
    rewrite (rt_span_stop (f :: fp') _ Hfp (rt_stops_tail hasexp eneg ex)). cbv beta iota. apply (Etail (f :: fp')).
Qed.

Lemma rt_lit_round (l : float_lit) dv k :
  dec_val (lit_int l ++ lit_frac l) 0 = dv ->
  ((if lit_eneg l then - Z.of_N (dec_val (lit_exp l) 0) else Z.of_N (dec_val (lit_exp l) 0)) - Z.of_nat (length (lit_frac l)))%Z = k ->
  dv <> 0 -> (-400 <= k <= 400)%Z ->
  float_of_lit l = if (0 <=? k)%Z then round_ratio (lit_neg l) (Z.of_N dv * 10 ^ k)%Z 1 else round_ratio (lit_neg l) (Z.of_N dv) (10 ^ (- k))%Z.
Proof.
  intros <- <- Hdv Hk. unfold float_of_lit. cbv zeta.
  destruct (N.eqb_spec (dec_val (lit_int l ++ lit_frac l) 0) 0) as [E|_]; [congruence|].
  match goal with |- (if (400 <? ?k)%Z then _ else _) = _ => replace (400 <? k)%Z with false by lia end.
  match goal with |- (if (?a <? -400)%Z then _ else _) = _ => replace (a <? -400)%Z with false by lia end.
  reflexivity.
Qed.

Lemma rt_lit_value (l : float_lit) (c p : Z) x :
  (0 < c)%Z -> (-350 < p < 350)%Z ->
  (forall n d, 0 < n -> 0 < d -> n * rt_up 10 p = c * rt_up 10 (- p) * d -> round_ratio (lit_neg l) n d = FRVal x)%Z ->
  let dv := dec_val (lit_int l ++ lit_frac l) 0 in
  let k := ((if lit_eneg l then - Z.of_N (dec_val (lit_exp l) 0) else Z.of_N (dec_val (lit_exp l) 0)) - Z.of_nat (length (lit_frac l)))%Z in
  (-400 <= k <= 400)%Z ->
  (Z.of_N dv * rt_up 10 k * rt_up 10 p = c * rt_up 10 (- p) * rt_up 10 (- k))%Z ->
  float_of_lit l = FRVal x.
Proof.
  intros Hc Hp H dv k Hk Heq.
  pose proof (rt_up_pos 10 k ltac:(lia)) as P1. pose proof (rt_up_pos 10 p ltac:(lia)) as P2.
  pose proof (rt_up_pos 10 (- p) ltac:(lia)) as P3. pose proof (rt_up_pos 10 (- k) ltac:(lia)) as P4.
  assert (Hdv : dv <> 0).
  { intros E. rewrite E in Heq. cbn [Z.of_N] in Heq. rewrite !Z.mul_0_l in Heq.
    assert (0 < c * rt_up 10 (- p) * rt_up 10 (- k))%Z by (apply Z.mul_pos_pos; [apply Z.mul_pos_pos|]; assumption). lia. }
  rewrite (rt_lit_round l dv k eq_refl eq_refl Hdv Hk).
  assert (Hdvp : (0 < Z.of_N dv)%Z) by lia.
  destruct (Z.leb_spec 0 k) as [Hk0|Hk0].
  - rewrite (rt_up_nonneg 10 k), (rt_up_nonpos 10 (- k)) in * by lia. apply H; [apply Z.mul_pos_pos; assumption|lia|lia].
  - rewrite (rt_up_nonpos 10 k), (rt_up_nonneg 10 (- k)) in * by lia. apply H; [assumption|assumption|lia].
Qed.

Lemma rt_lit_value_same (l : float_lit) (c p : Z) x :
  (0 < c)%Z -> (-350 < p < 350)%Z ->
  (forall n d, 0 < n -> 0 < d -> n * rt_up 10 p = c * rt_up 10 (- p) * d -> round_ratio (lit_neg l) n d = FRVal x)%Z ->
  Z.of_N (dec_val (lit_int l ++ lit_frac l) 0) = c ->
  ((if lit_eneg l then - Z.of_N (dec_val (lit_exp l) 0) else Z.of_N (dec_val (lit_exp l) 0)) - Z.of_nat (length (lit_frac l)) = - p)%Z ->
  float_of_lit l = FRVal x.
Proof.
  intros Hc Hp H Hv Hk. apply (rt_lit_value l c p x Hc Hp H); rewrite Hk; [lia|].
  rewrite Hv, Z.opp_involutive. reflexivity.
Qed.

Lemma rt_exd2 (z : Z) : (0 <= z)%Z ->
  let exd2 := match dec_of_Z z with [_] => 48 :: dec_of_Z z | _ => dec_of_Z z end in
  rt_digs exd2 /\ exd2 <> [] /\ Z.of_N (dec_val exd2 0) = z.
Proof.
  intros Hz. assert (E : dec_of_Z z = dec_of_N (Z.to_N z)) by (destruct z; [reflexivity|reflexivity|lia]).
  rewrite E. pose proof (dec_of_N_digits (Z.to_N z)) as Hd. pose proof (dec_of_N_nonempty (Z.to_N z)) as Hn.
  pose proof (rt_dec_val_dec (Z.to_N z)) as Hv. fold (rt_digs (dec_of_N (Z.to_N z))) in Hd.
  destruct (dec_of_N (Z.to_N z)) as [|a [|a' r]]; [congruence| |].
  - cbv zeta. split; [constructor; [unfold is_digit_byte; lia|exact Hd]|]. split; [discriminate|].
    cbn [dec_val] in *. replace (0 * 10 + (48 - 48)) with 0 by lia. lia.
  - cbv zeta. split; [exact Hd|]. split; [discriminate|]. lia.
Qed.

Lemma rt_fpart_ne l : l <> [] -> rt_fpart l = 46 :: l.
Proof. destruct l; [congruence|reflexivity]. Qed.

Lemma rt_mem_mid c l1 l2 : mem c (l1 ++ c :: l2) = true.
Proof. unfold mem. rewrite existsb_app. cbn [existsb]. rewrite N.eqb_refl, orb_true_r. reflexivity. Qed.

(* the texts of this file as a predicate: sign, digits, then a fraction or an exponent (a float text) *)
Definition rt_shape (s : bstr) : Prop :=
  exists (neg : bool) (ip fp : bstr) (hasexp eneg : bool) (ex : bstr),
    s = rt_text neg ip fp hasexp eneg ex /\ rt_digs ip /\ ip <> [] /\ rt_digs fp /\ rt_digs ex /\
    (if hasexp then ex <> @nil N else True) /\ (fp <> [] \/ (hasexp = true /\ exists d, ip = [d])).

Lemma rt_mem_digs c l : rt_digs l -> (c < 48 \/ 57 < c) -> mem c l = false.
Proof.
  intros Hl Hc. unfold mem. induction Hl as [|d l Hd Hl IH]; [reflexivity|]. cbn [existsb]. rewrite IH.
  unfold is_digit_byte in Hd. replace (c =? d) with false by lia. reflexivity.
Qed.

Lemma rt_mem_sign c (neg : bool) l : c <> 45 -> mem c ((if neg then [45] else []) ++ l) = mem c l.
Proof. intros Hc. destruct neg; [|reflexivity]. unfold mem. cbn [app existsb]. replace (c =? 45) with false by lia. reflexivity. Qed.

Section Fmt.
Variables (neg : bool) (c p : Z) (x : fl) (ds : bstr).
Hypothesis Hc : (0 < c)%Z.
Hypothesis Hp : (-350 < p < 350)%Z.
Hypothesis H : (forall n d, 0 < n -> 0 < d -> n * rt_up 10 p = c * rt_up 10 (- p) * d -> round_ratio neg n d = FRVal x)%Z.
Hypothesis Hds : rt_digs ds.
Hypothesis Hne : ds <> [].
Hypothesis Hval : Z.of_N (dec_val ds 0) = c.
Let nd := Z.of_nat (length ds).
Let dp := (nd - p)%Z.
Let sign : bstr := if neg then [45] else [].

Lemma rt_parse_text ip fp (hasexp eneg : bool) ex :
  rt_digs ip -> ip <> [] -> rt_digs fp -> rt_digs ex ->
  (if hasexp then ex <> @nil N else eneg = false /\ ex = @nil N) ->
  Z.of_N (dec_val (ip ++ fp) 0) = c ->
  ((if eneg then - Z.of_N (dec_val ex 0) else Z.of_N (dec_val ex 0)) - Z.of_nat (length fp) = - p)%Z ->
  parse_float_round (rt_text neg ip fp hasexp eneg ex) = FRVal x.
Proof.
  intros H1 H2 H3 H4 H5 Hv Hk. unfold parse_float_round. rewrite (rt_split_text neg ip fp hasexp eneg ex H1 H2 H3 H4 H5).
  apply (rt_lit_value_same _ c p x Hc Hp); cbn [lit_neg lit_int lit_frac lit_eneg lit_exp]; assumption.
Qed.

(* such a text with a fraction or an exponent: it reads back, shows a '.' or an 'e', and is a float text *)
Lemma rt_text_ok ip fp (hasexp eneg : bool) ex :
  rt_digs ip -> ip <> [] -> rt_digs fp -> rt_digs ex ->
  (if hasexp then ex <> @nil N else eneg = false /\ ex = @nil N) ->
  (fp <> [] \/ (hasexp = true /\ exists d, ip = [d])) ->
  Z.of_N (dec_val (ip ++ fp) 0) = c ->
  ((if eneg then - Z.of_N (dec_val ex 0) else Z.of_N (dec_val ex 0)) - Z.of_nat (length fp) = - p)%Z ->
  parse_float_round (rt_text neg ip fp hasexp eneg ex) = FRVal x /\
  mem 46 (rt_text neg ip fp hasexp eneg ex) || mem 101 (rt_text neg ip fp hasexp eneg ex) = true /\
  rt_shape (rt_text neg ip fp hasexp eneg ex).
Proof.
  intros H1 H2 H3 H4 H5 H6 Hv Hk. split; [apply rt_parse_text; assumption|]. split.
  - unfold rt_text. destruct H6 as [Hf|[-> _]].
    + rewrite (rt_fpart_ne fp Hf), app_assoc. cbn [app]. rewrite (rt_mem_mid 46). reflexivity.
    + cbn [rt_tail]. rewrite !app_assoc, (rt_mem_mid 101). apply orb_true_r.
  - exists neg, ip, fp, hasexp, eneg, ex. split; [reflexivity|]. split; [exact H1|]. split; [exact H2|]. split; [exact H3|].
    split; [exact H4|]. split; [destruct hasexp; [exact H5|exact Logic.I]|exact H6].
Qed.

Lemma rt_case_exp : ((dp - 1 <? -4) || (6 <=? dp - 1))%Z = true ->
  parse_float_round (fmt_g sign ds dp) = FRVal x /\ mem 46 (fmt_g sign ds dp) || mem 101 (fmt_g sign ds dp) = true /\ rt_shape (fmt_g sign ds dp).
Proof.
  intros Hcond. unfold fmt_g. cbv zeta. rewrite Hcond.
  destruct ds as [|d1 rest] eqn:Eds; [congruence|].
  pose proof (rt_exd2 (Z.abs (dp - 1)) ltac:(lia)) as X2. cbv zeta in X2.
  set (exd2 := match dec_of_Z (Z.abs (dp - 1)) with [_] => 48 :: dec_of_Z (Z.abs (dp - 1)) | _ => dec_of_Z (Z.abs (dp - 1)) end) in *.
  destruct X2 as (Xd & Xn & Xv).
  assert (Et : sign ++ (d1 :: match rest with [] => [] | _ :: _ => 46 :: rest end) ++ [101; if (dp - 1 <? 0)%Z then 45 else 43] ++ exd2
               = rt_text neg [d1] rest true (dp - 1 <? 0)%Z exd2).
  { unfold rt_text, rt_tail, rt_fpart, sign. destruct rest; cbn [app]; rewrite <- ?app_assoc; reflexivity. }
  rewrite Et. pose proof (Forall_inv Hds) as Hd1. pose proof (Forall_inv_tail Hds) as Hrest.
  apply rt_text_ok; [constructor; [exact Hd1|constructor]|discriminate|exact Hrest|exact Xd|exact Xn| |exact Hval|].
  - destruct rest; [right; split; [reflexivity|eexists; reflexivity]|left; discriminate].
  - rewrite Xv. assert (Hl : nd = (1 + Z.of_nat (length rest))%Z) by (unfold nd; cbn [length]; lia).
    destruct (Z.ltb_spec (dp - 1) 0); unfold dp in *; lia.
Qed.

Lemma rt_case_small : (dp <= 0)%Z ->
  parse_float_round (sign ++ [48; 46] ++ zeros (- dp) ++ ds) = FRVal x /\
  mem 46 (sign ++ [48; 46] ++ zeros (- dp) ++ ds) || mem 101 (sign ++ [48; 46] ++ zeros (- dp) ++ ds) = true /\
  rt_shape (sign ++ [48; 46] ++ zeros (- dp) ++ ds).
Proof.
  intros Hdp. unfold zeros.
  assert (Et : sign ++ [48; 46] ++ repeat 48 (Z.to_nat (- dp)) ++ ds = rt_text neg [48] (repeat 48 (Z.to_nat (- dp)) ++ ds) false false []).
  { unfold rt_text, rt_tail, sign. rewrite rt_fpart_ne by (destruct (repeat 48 (Z.to_nat (- dp))); [exact Hne|discriminate]).
    cbn [app]. rewrite app_nil_r. reflexivity. }
  rewrite Et.
  assert (Hfn : repeat 48 (Z.to_nat (- dp)) ++ ds <> []) by (destruct (repeat 48 (Z.to_nat (- dp))); [exact Hne|discriminate]).
  apply rt_text_ok; [constructor; [unfold is_digit_byte; lia|constructor]|discriminate|apply rt_digs_app; [apply rt_digs_zeros|exact Hds]|constructor|auto|left; exact Hfn| |].
  - cbn [app dec_val]. replace (0 * 10 + (48 - 48)) with 0 by lia. rewrite rt_dec_val_app, rt_dec_val_zeros. rewrite N.mul_0_l. exact Hval.
  - cbn [dec_val]. rewrite app_length, repeat_length. unfold dp, nd in *. lia.
Qed.

Lemma rt_case_int : (nd <= dp)%Z ->
  parse_float_round (sign ++ ds ++ zeros (dp - nd)) = FRVal x /\
  parse_float_round ((sign ++ ds ++ zeros (dp - nd)) ++ [46; 48]) = FRVal x /\
  mem 46 (sign ++ ds ++ zeros (dp - nd)) || mem 101 (sign ++ ds ++ zeros (dp - nd)) = false /\
  rt_shape ((sign ++ ds ++ zeros (dp - nd)) ++ [46; 48]).
Proof.
  intros Hdp. unfold zeros. set (zs := repeat 48 (Z.to_nat (dp - nd))).
  assert (Hz : rt_digs zs) by apply rt_digs_zeros.
  assert (Hv : Z.of_N (dec_val (ds ++ zs) 0) = (c * 10 ^ (dp - nd))%Z).
  { rewrite rt_dec_val_app. unfold zs. rewrite rt_dec_val_zeros. rewrite N2Z.inj_mul, N2Z.inj_pow, Hval, nat_N_Z, Z2Nat.id by lia. reflexivity. }
  assert (Hn2 : ds ++ zs <> []) by (destruct ds; [congruence|discriminate]).
  assert (P : (0 < 10 ^ (dp - nd))%Z) by (apply Z.pow_pos_nonneg; lia).
  (* with no fraction, or with the fraction "0" *)
  assert (G : forall j, (j <= 1)%nat -> parse_float_round (rt_text neg (ds ++ zs) (repeat 48 j) false false []) = FRVal x).
  { intros j Hj. unfold parse_float_round.
    rewrite (rt_split_text neg (ds ++ zs) _ false false [] (rt_digs_app _ _ Hds Hz) Hn2 (rt_digs_zeros j) (Forall_nil _) (conj eq_refl eq_refl)).
    apply (rt_lit_value _ c p x Hc Hp); cbn [lit_neg lit_int lit_frac lit_eneg lit_exp dec_val]; rewrite ?repeat_length; [exact H|lia|].
    rewrite rt_dec_val_app, rt_dec_val_zeros, N2Z.inj_mul, N2Z.inj_pow, Hv, nat_N_Z.
    rewrite (rt_up_nonpos 10 p), (rt_up_nonneg 10 (- p)), (rt_up_nonpos 10 (_ - _)), (rt_up_nonneg 10 (- (_ - _))) by (unfold dp in *; lia).
    replace (- p)%Z with (dp - nd)%Z by (unfold dp; lia). replace (- (Z.of_N 0 - Z.of_nat j))%Z with (Z.of_nat j) by lia.
    change (Z.of_N 10) with 10%Z. ring. }
  split; [|split].
  - rewrite <- (G 0%nat) by lia. f_equal. unfold rt_text, rt_tail, rt_fpart, sign. cbn [app repeat]. rewrite !app_nil_r. reflexivity.
  - rewrite <- (G 1%nat) by lia. f_equal. unfold rt_text, rt_tail, rt_fpart, sign. cbn [app repeat]. rewrite <- !app_assoc. reflexivity.
  - split.
    + unfold sign. rewrite !rt_mem_sign by lia. rewrite !(rt_mem_digs _ (ds ++ zs)) by (try apply rt_digs_app; try assumption; lia). reflexivity.
    + assert (H48 : rt_digs [48]) by (constructor; [unfold is_digit_byte; lia|constructor]).
      exists neg, (ds ++ zs), [48], false, false, []. split.
      { unfold rt_text, rt_tail, rt_fpart, sign. cbn [app]. rewrite <- !app_assoc. reflexivity. }
      split; [apply rt_digs_app; assumption|]. split; [exact Hn2|]. split; [exact H48|]. split; [constructor|]. split; [exact Logic.I|]. left. discriminate.
Qed.

Lemma rt_case_mid : (0 < dp < nd)%Z ->
  parse_float_round (sign ++ firstn (Z.to_nat dp) ds ++ [46] ++ skipn (Z.to_nat dp) ds) = FRVal x /\
  mem 46 (sign ++ firstn (Z.to_nat dp) ds ++ [46] ++ skipn (Z.to_nat dp) ds) || mem 101 (sign ++ firstn (Z.to_nat dp) ds ++ [46] ++ skipn (Z.to_nat dp) ds) = true /\
  rt_shape (sign ++ firstn (Z.to_nat dp) ds ++ [46] ++ skipn (Z.to_nat dp) ds).
Proof.
  intros Hdp. set (a := firstn (Z.to_nat dp) ds). set (r := skipn (Z.to_nat dp) ds).
  assert (Ear : a ++ r = ds) by apply firstn_skipn.
  assert (Hd2 : rt_digs a /\ rt_digs r) by (apply Forall_app; rewrite Ear; exact Hds).
  assert (Lr : length r = (length ds - Z.to_nat dp)%nat) by apply skipn_length.
  assert (La : length a = Z.to_nat dp) by (apply firstn_length_le; unfold nd in *; lia).
  assert (Hr : r <> []) by (intros E; rewrite E in Lr; cbn in Lr; unfold nd in *; lia).
  assert (Ha : a <> []) by (intros E; rewrite E in La; cbn in La; lia).
  assert (Et : sign ++ a ++ [46] ++ r = rt_text neg a r false false []).
  { unfold rt_text, rt_tail, sign. rewrite (rt_fpart_ne r Hr). cbn [app]. rewrite app_nil_r. reflexivity. }
  rewrite Et. apply rt_text_ok; [apply Hd2|exact Ha|apply Hd2|constructor|auto|left; exact Hr| |].
  - rewrite Ear. exact Hval.
  - cbn [dec_val]. rewrite Lr. unfold dp, nd in *. lia.
Qed.

(* the four layouts together: the text reads back, and it is a float text -- as it stands when it has a '.' or an 'e',
   with ".0" appended otherwise (what ast FloatNode.String does) *)
Theorem rt_fmt_g_parse :
  parse_float_round (fmt_g sign ds dp) = FRVal x /\
  ((mem 46 (fmt_g sign ds dp) || mem 101 (fmt_g sign ds dp) = true /\ rt_shape (fmt_g sign ds dp)) \/
   (mem 46 (fmt_g sign ds dp) || mem 101 (fmt_g sign ds dp) = false /\
    parse_float_round (fmt_g sign ds dp ++ [46; 48]) = FRVal x /\ rt_shape (fmt_g sign ds dp ++ [46; 48]))).
Proof.
  destruct ((dp - 1 <? -4) || (6 <=? dp - 1))%Z eqn:C1.
  - destruct (rt_case_exp C1) as (A & B & C). auto.
  - unfold fmt_g. cbv zeta. rewrite C1. fold nd.
    destruct (Z.leb_spec dp 0) as [C2|C2].
    + destruct (rt_case_small C2) as (A & B & C). auto.
    + destruct (Z.leb_spec nd dp) as [C3|C3].
      * destruct (rt_case_int C3) as (A & B & C & D). auto.
      * destruct (rt_case_mid (conj C2 C3)) as (A & B & C). auto.
Qed.
End Fmt.
