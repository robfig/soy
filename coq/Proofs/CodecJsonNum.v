(* C16, json of numbers: the decimal text encoding/json writes for an int64 and
   for a float64 of the exact printing domain (Model/Num.v fl_to_string_dom) is read
   by the RFC 8259 number reader (Spec/Json.v json_number) as exactly the number
   the value denotes. *)
From Coq Require Import Lia ZifyN ZifyNat ZifyBool.
From Soy Require Import Model.Bytes Model.Utf8 Model.Num Model.Values Spec.Codec Spec.Json Proofs.MsgIdProofs.
Open Scope N_scope.
Ltac Zify.zify_post_hook ::= Z.div_mod_to_equations.

Lemma dec_norm_aux_fuel f1 : forall f2 m e, 0 < m -> m < 2 ^ N.of_nat f1 -> m < 2 ^ N.of_nat f2 ->
  dec_norm_aux f1 m e = dec_norm_aux f2 m e.
Proof.
  induction f1 as [|f1 IH]; intros f2 m e Hm H1 H2.
  - cbn in H1. lia.
  - destruct f2 as [|f2]; [cbn in H2; lia|].
    cbn [dec_norm_aux]. destruct (m mod 10 =? 0) eqn:E; [|reflexivity].
    rewrite Nat2N.inj_succ, N.pow_succ_r' in H1, H2.
    apply IH.
    + lia.
    + generalize dependent (2 ^ N.of_nat f1). intros; lia.
    + generalize dependent (2 ^ N.of_nat f2). intros; lia.
Qed.

Lemma size_bound m : m < 2 ^ N.of_nat (N.to_nat (N.size m)).
Proof. rewrite N2Nat.id. apply N.size_gt. Qed.

Lemma dec_norm_shift m e : 0 < m -> dec_norm (m * 10) (e - 1) = dec_norm m e.
Proof.
  intros Hm. unfold dec_norm.
  destruct (N.eqb_spec (m * 10) 0) as [E|_]; [lia|]. destruct (N.eqb_spec m 0) as [E|_]; [lia|].
  pose proof (size_bound (m * 10)) as Hb.
  destruct (N.to_nat (N.size (m * 10))) as [|f] eqn:Ef.
  - cbn in Hb. lia.
  - cbn [dec_norm_aux]. rewrite N.mod_mul by discriminate. cbn [N.eqb]. rewrite N.div_mul by discriminate.
    replace (e - 1 + 1)%Z with e by lia.
    apply dec_norm_aux_fuel; [exact Hm| |apply size_bound].
    rewrite Nat2N.inj_succ, N.pow_succ_r' in Hb. generalize dependent (2 ^ N.of_nat f). intros; lia.
Qed.

Lemma dec_norm_shift_pow j : forall m e, 0 < m -> dec_norm (m * 10 ^ j) (e - Z.of_N j) = dec_norm m e.
Proof.
  induction j as [|j IH] using N.peano_ind; intros m e Hm.
  - rewrite N.pow_0_r, N.mul_1_r. f_equal. lia.
  - rewrite N.pow_succ_r'. replace (m * (10 * 10 ^ j)) with (m * 10 ^ j * 10) by lia.
    replace (e - Z.of_N (N.succ j))%Z with (e - Z.of_N j - 1)%Z by lia.
    rewrite dec_norm_shift.
    + apply IH. exact Hm.
    + assert (0 < 10 ^ j) by (apply N.neq_0_lt_0, N.pow_nonzero; discriminate). nia.
Qed.

Fixpoint hval (ds : bstr) (acc : N) : N :=
  match ds with
  | [] => acc
  | c :: r => hval r (acc * 10 + (c - 48))
  end.

(* the next byte does not continue a run of digits *)
Definition stop_nondigit (rest : bstr) : Prop := match rest with [] => True | c :: _ => is_digit c = false end.

Lemma is_digit_byte_b c : is_digit_byte c -> is_digit c = true.
Proof. unfold is_digit_byte, is_digit, in_range. lia. Qed.

Lemma scan_digits_run ds : forall rest acc cnt, Forall is_digit_byte ds -> stop_nondigit rest ->
  scan_digits (ds ++ rest) acc cnt = (hval ds acc, (cnt + length ds)%nat, rest).
Proof.
  induction ds as [|c ds IH]; intros rest acc cnt Hd Hs.
  - cbn [app hval length]. rewrite Nat.add_0_r. destruct rest as [|c r]; [reflexivity|].
    cbn in Hs. cbn [scan_digits]. rewrite Hs. reflexivity.
  - inversion Hd as [|? ? Hc Hr]; subst. cbn [app scan_digits]. rewrite (is_digit_byte_b c Hc).
    rewrite IH by assumption. cbn [hval length]. f_equal. f_equal. lia.
Qed.

Lemma hval_app a : forall c acc, hval (a ++ c) acc = hval c (hval a acc).
Proof. induction a as [|x a IH]; intros c acc; [reflexivity|]. cbn [app hval]. apply IH. Qed.

Lemma hval_rev_lval l : hval (rev l) 0 = lval l.
Proof.
  induction l as [|c r IH]; [reflexivity|].
  cbn [rev lval]. rewrite hval_app, IH. cbn [hval]. lia.
Qed.

Lemma hval_dec n : hval (dec_of_N n) 0 = n.
Proof. rewrite dec_of_N_lsd, hval_rev_lval. apply lval_lsd, lt_pow2_log2. Qed.

Lemma lsd_last_nz fuel : forall n, 0 < n -> n < 2 ^ N.of_nat fuel -> last (lsd fuel n) 0 <> 48.
Proof.
  induction fuel as [|f IH]; intros n Hn Hlt; [cbn in Hlt; lia|]. cbn [lsd].
  destruct (N.eqb_spec (n / 10) 0) as [E|E].
  - cbn [last]. lia.
  - assert (0 < n / 10) as Hq by lia.
    assert (n / 10 < 2 ^ N.of_nat f) as Hlt'.
    { rewrite Nat2N.inj_succ, N.pow_succ_r' in Hlt. generalize dependent (2 ^ N.of_nat f). intros; lia. }
    specialize (IH (n / 10) Hq Hlt').
    destruct (lsd f (n / 10)) as [|d r] eqn:El.
    + destruct f; cbn in El; [cbn in Hlt'; lia|discriminate].
    + exact IH.
Qed.

(* a positive number is written with a first digit that is not 0 *)
Lemma dec_of_N_pos_head p : exists d ds, dec_of_N (Npos p) = d :: ds /\ Forall is_digit_byte (d :: ds) /\ d <> 48.
Proof.
  pose proof (dec_of_N_digits (Npos p)) as Hd. pose proof (dec_of_N_nonempty (Npos p)) as Hne.
  pose proof (dec_of_N_lsd (Npos p)) as Hl.
  destruct (dec_of_N (Npos p)) as [|d ds] eqn:E; [congruence|]. exists d, ds. split; [reflexivity|]. split; [exact Hd|].
  pose proof (lsd_last_nz (S (N.to_nat (N.log2 (Npos p)))) (Npos p) ltac:(lia) (lt_pow2_log2 (Npos p))) as Hz.
  remember (lsd (S (N.to_nat (N.log2 (N.pos p)))) (N.pos p)) as L.
  assert (L = rev ds ++ [d]) as HL by (rewrite <- (rev_involutive L), <- Hl; reflexivity).
  rewrite HL, last_last in Hz. exact Hz.
Qed.

(* the byte after the number does not continue it *)
Definition stop_num (rest : bstr) : Prop :=
  match rest with [] => True | c :: _ => is_digit c = false /\ c <> 46 /\ c <> 101 /\ c <> 69 end.

Lemma stop_num_nondigit rest : stop_num rest -> stop_nondigit rest.
Proof. destruct rest; cbn; tauto. Qed.

Lemma eat_stop c rest : match rest with [] => True | x :: _ => x <> c end -> eat c rest = None.
Proof. destruct rest as [|x r]; [reflexivity|]. intros H. cbn [eat]. destruct (N.eqb_spec x c); [congruence|reflexivity]. Qed.

Lemma num_exp_stop rest : stop_num rest -> num_exp rest = Some (0%Z, rest).
Proof.
  destruct rest as [|c3 r3]; [reflexivity|]. cbn [stop_num]. intros (_ & _ & H1 & H2). cbn [num_exp].
  destruct (N.eqb_spec c3 101); [congruence|]. destruct (N.eqb_spec c3 69); [congruence|]. reflexivity.
Qed.

(* the byte after the mantissa is neither a digit nor a point: what follows is an exponent or the end of the number *)
Definition stop_mant (rest : bstr) : Prop :=
  match rest with [] => True | c :: _ => is_digit c = false /\ c <> 46 end.

Lemma stop_num_mant rest : stop_num rest -> stop_mant rest.
Proof. destruct rest; cbn; tauto. Qed.

Lemma num_frac_none ip rest : stop_mant rest -> num_frac ip rest = Some (ip, 0%nat, rest).
Proof.
  intros Hs. unfold num_frac. rewrite eat_stop; [reflexivity|]. destruct rest; [exact I|cbn in Hs; tauto].
Qed.

Lemma num_frac_run ip f0 fr rest : Forall is_digit_byte (f0 :: fr) -> stop_mant rest ->
  num_frac ip (46 :: (f0 :: fr) ++ rest) = Some (hval (f0 :: fr) ip, length (f0 :: fr), rest).
Proof.
  intros Hd Hs. unfold num_frac. cbn [eat]. rewrite N.eqb_refl.
  rewrite scan_digits_run by (try assumption; destruct rest; cbn in *; tauto). reflexivity.
Qed.

(* [-] ip [. fd], no leading zero, up to the exponent: the exponent part of [rest] is left to num_exp *)
Lemma json_number_mant ip fd rest neg0 :
  (ip = [48] \/ exists d ds, ip = d :: ds /\ d <> 48) -> Forall is_digit_byte ip -> Forall is_digit_byte fd -> stop_mant rest ->
  forall pre, (pre = [] /\ neg0 = false) \/ (pre = [45] /\ neg0 = true) ->
  json_number (pre ++ ip ++ (match fd with [] => [] | _ => 46 :: fd end) ++ rest) =
    match num_exp rest with
    | Some (ex, s4) =>
        let '(m, e) := dec_norm (hval fd (hval ip 0)) (ex - Z.of_nat (length fd)) in Some (JvNum neg0 m e, s4)
    | None => None
    end.
Proof.
  intros Hip Hdi Hdf Hstop pre Hpre.
  assert (exists c0 r0, ip = c0 :: r0 /\ is_digit_byte c0) as (c0 & r0 & Eip & Hc0).
  { destruct Hip as [->|(d & ds & -> & _)]; [exists 48, []; split; [reflexivity|unfold is_digit_byte; lia]|].
    inversion Hdi; subst. eauto. }
  set (tail := (match fd with [] => [] | _ => 46 :: fd end) ++ rest).
  unfold json_number.
  assert (num_sign (pre ++ ip ++ tail) = (neg0, ip ++ tail)) as ->.
  { unfold num_sign. destruct Hpre as [[-> ->]|[-> ->]].
    - cbn [app]. rewrite Eip. cbn [app eat]. unfold is_digit_byte in Hc0. destruct (N.eqb_spec c0 45); [lia|reflexivity].
    - reflexivity. }
  assert (stop_nondigit tail) as Hs2.
  { subst tail. destruct fd; [cbn [app]; destruct rest; cbn in *; tauto|reflexivity]. }
  pose proof (scan_digits_run ip tail 0 0%nat Hdi Hs2) as Hscan. cbn [Nat.add] in Hscan.
  rewrite Eip at 1. cbn [app]. rewrite (is_digit_byte_b c0 Hc0). cbn [negb].
  rewrite Hscan.
  assert (((c0 =? 48) && negb (Nat.eqb (length ip) 1)) = false) as ->.
  { destruct Hip as [->|(d & ds & E & Hd)].
    - injection Eip as <- <-. reflexivity.
    - rewrite Eip in E. injection E as -> ->. destruct (N.eqb_spec d 48); [congruence|reflexivity]. }
  subst tail. destruct fd as [|f0 fr].
  - cbn [app]. rewrite num_frac_none by exact Hstop. reflexivity.
  - change ((46 :: f0 :: fr) ++ rest) with (46 :: (f0 :: fr) ++ rest).
    rewrite num_frac_run by assumption. reflexivity.
Qed.

(* digits without sign, no leading zero: ip [. fd] *)
Lemma json_number_unsigned ip fd rest neg0 :
  (ip = [48] \/ exists d ds, ip = d :: ds /\ d <> 48) -> Forall is_digit_byte ip -> Forall is_digit_byte fd -> stop_num rest ->
  forall pre, (pre = [] /\ neg0 = false) \/ (pre = [45] /\ neg0 = true) ->
  json_number (pre ++ ip ++ (match fd with [] => [] | _ => 46 :: fd end) ++ rest) =
    (let '(m, e) := dec_norm (hval fd (hval ip 0)) (- Z.of_nat (length fd)) in Some (JvNum neg0 m e, rest)).
Proof.
  intros Hip Hdi Hdf Hstop pre Hpre.
  rewrite (json_number_mant ip fd rest neg0 Hip Hdi Hdf (stop_num_mant _ Hstop) pre Hpre), num_exp_stop by exact Hstop.
  reflexivity.
Qed.

Lemma dec_of_N_ip n : (dec_of_N n = [48] \/ exists d ds, dec_of_N n = d :: ds /\ d <> 48).
Proof.
  destruct n as [|p]; [left; reflexivity|]. right.
  destruct (dec_of_N_pos_head p) as (d & ds & E & _ & Hd). eauto.
Qed.

Lemma json_number_dec (neg : bool) n fd rest : Forall is_digit_byte fd -> stop_num rest ->
  json_number (((if neg then [45] else []) : bstr) ++ dec_of_N n ++ (match fd with [] => [] | _ => 46 :: fd end) ++ rest) =
    (let '(m, e) := dec_norm (hval fd n) (- Z.of_nat (length fd)) in Some (JvNum neg m e, rest)).
Proof.
  intros Hfd Hstop. rewrite <- (hval_dec n) at 2.
  apply (json_number_unsigned (dec_of_N n) fd rest neg (dec_of_N_ip n) (dec_of_N_digits n) Hfd Hstop). destruct neg; auto.
Qed.

Lemma dec_of_Z_sign z : dec_of_Z z = ((if (z <? 0)%Z then [45] else []) : bstr) ++ dec_of_N (Z.abs_N z).
Proof. destruct z; reflexivity. Qed.

Theorem json_number_int z rest : stop_num rest -> json_number (dec_of_Z z ++ rest) = Some (num_of_Z z, rest).
Proof.
  intros Hstop. rewrite dec_of_Z_sign, <- app_assoc.
  pose proof (json_number_dec (z <? 0)%Z (Z.abs_N z) [] rest (Forall_nil _) Hstop) as H.
  cbn [app hval length Z.of_nat Z.opp] in H. rewrite H. unfold num_of_Z. destruct (dec_norm (Z.abs_N z) 0); reflexivity.
Qed.

Lemma frac_scale f : forall num den c, (0 < c)%Z -> (0 < den)%Z ->
  frac_digits f (c * num) (c * den) = frac_digits f num den.
Proof.
  induction f as [|f IH]; intros num den c Hc Hden; cbn [frac_digits]; [reflexivity|].
  destruct (Z.eqb_spec num 0) as [->|Hn].
  - rewrite Z.mul_0_r. reflexivity.
  - destruct (Z.eqb_spec (c * num) 0) as [E|_]; [nia|].
    replace (c * num * 10)%Z with (c * (num * 10))%Z by ring.
    rewrite Z.div_mul_cancel_l by lia. rewrite Z.mul_mod_distr_l by lia. rewrite IH by lia. reflexivity.
Qed.

(* the digits of num / 2^k are exact after at most k places *)
Lemma frac_exact k : forall f num acc, (k <= f)%nat -> (0 <= num < 2 ^ Z.of_nat k)%Z ->
  Forall is_digit_byte (frac_digits f num (2 ^ Z.of_nat k)) /\
  (length (frac_digits f num (2 ^ Z.of_nat k)) <= k)%nat /\
  (num <> 0%Z -> frac_digits f num (2 ^ Z.of_nat k) <> []) /\
  (Z.of_N (hval (frac_digits f num (2 ^ Z.of_nat k)) acc) * 2 ^ Z.of_nat k =
   (Z.of_N acc * 2 ^ Z.of_nat k + num) * 10 ^ Z.of_nat (length (frac_digits f num (2 ^ Z.of_nat k))))%Z.
Proof.
  induction k as [|k IH]; intros f num acc Hf Hnum.
  - cbn in Hnum. assert (num = 0%Z) as -> by lia.
    assert (frac_digits f 0 (2 ^ Z.of_nat 0) = []) as -> by (destruct f; reflexivity).
    cbn [hval length]. repeat split; try constructor; try congruence; cbn; lia.
  - destruct f as [|f]; [lia|].
    rewrite Nat2Z.inj_succ, Z.pow_succ_r in * by lia.
    set (P := (2 ^ Z.of_nat k)%Z) in *. assert (0 < P)%Z as HP by (apply Z.pow_pos_nonneg; lia).
    cbn [frac_digits]. destruct (Z.eqb_spec num 0) as [->|Hn0].
    + cbn [hval length]. repeat split; try constructor; try congruence; cbn; lia.
    + set (d := (num * 10 / (2 * P))%Z). set (n' := (num * 10 mod (2 * P))%Z).
      assert (0 <= d < 10)%Z as Hd by (subst d; split; [apply Z.div_pos; lia|apply Z.div_lt_upper_bound; lia]).
      assert (num * 10 = 2 * P * d + n' /\ 0 <= n' < 2 * P)%Z as (Hdm & Hn').
      { subst d n'. split; [apply Z.div_mod; lia|apply Z.mod_pos_bound; lia]. }
      set (n2 := (5 * num - P * d)%Z).
      assert (n' = 2 * n2)%Z as En' by (subst n2; lia).
      rewrite En'. rewrite frac_scale by lia.
      assert (0 <= n2 < P)%Z as Hn2 by lia.
      destruct (IH f n2 (acc * 10 + Z.to_N d) ltac:(lia) Hn2) as (Hdig & Hlen & _ & Heq).
      set (fd := frac_digits f n2 P) in *.
      split; [|split; [|split]].
      * constructor; [unfold is_digit_byte; clear -Hd; lia|exact Hdig].
      * cbn [length]. lia.
      * discriminate.
      * cbn [hval length]. replace (Z.to_N (48 + d) - 48) with (Z.to_N d) by (clear -Hd; lia).
        rewrite Nat2Z.inj_succ, Z.pow_succ_r by lia.
        set (X := Z.of_N (hval fd (acc * 10 + Z.to_N d))) in *. set (T := (10 ^ Z.of_nat (length fd))%Z) in *.
        replace (Z.of_N (acc * 10 + Z.to_N d)) with (Z.of_N acc * 10 + d)%Z in Heq by (clear -Hd; lia).
        replace (X * (2 * P))%Z with (2 * (X * P))%Z by ring. rewrite Heq.
        subst n2. ring.
Qed.

Lemma frac_text_ne (fd : bstr) : fd <> [] -> (match fd with [] => [] | _ => 46 :: fd end) = 46 :: fd.
Proof. destruct fd; [congruence|reflexivity]. Qed.

Lemma some_inj {A} (x y : A) : Some x = Some y -> x = y.
Proof. intros H. injection H as H. exact H. Qed.

(* normalised floats: the mantissa is odd (what mk_fl produces) *)
Definition fl_norm (x : fl) : Prop := match x with FFin m _ => Z.odd m = true | _ => True end.

Lemma dec_of_Z_nonneg v : (0 <= v)%Z -> dec_of_Z v = dec_of_N (Z.to_N v).
Proof. destruct v as [|p|p]; [reflexivity|reflexivity|lia]. Qed.

Theorem json_number_float x s rest : fl_norm x -> fl_to_string_dom x = Some s -> stop_num rest ->
  forall j, num_of_fl x = Some j -> json_number (s ++ rest) = Some (j, rest).
Proof.
  intros Hnorm Hs Hstop j Hj.
  destruct x as [| |n|m e]; cbn [num_of_fl] in Hj; try discriminate.
  - (* zero *)
    injection Hj as <-. cbn [fl_to_string_dom] in Hs.
    destruct n; injection Hs as <-;
      [exact (json_number_dec true 0 [] rest (Forall_nil _) Hstop)|exact (json_number_dec false 0 [] rest (Forall_nil _) Hstop)].
  - cbn [fl_norm] in Hnorm. cbn [fl_to_string_dom] in Hs. cbv zeta in Hs.
    assert (m <> 0)%Z as Hm0 by (intros ->; discriminate).
    set (a := Z.abs m) in *. assert (0 < a)%Z as Ha by lia.
    assert (Z.abs_N m = Z.to_N a) as Eabs by lia. rewrite Eabs in Hj. clear Eabs.
    destruct (Z.leb_spec 0 e) as [He|He].
    + (* an integer value *)
      destruct (a * 2 ^ e <? 1000000)%Z; [|discriminate]. apply some_inj in Hs. subst s.
      assert (0 < a * 2 ^ e)%Z as Hv by (apply Z.mul_pos_pos; [lia|apply Z.pow_pos_nonneg; lia]).
      rewrite dec_of_Z_nonneg, <- app_assoc by lia.
      pose proof (json_number_dec (m <? 0)%Z (Z.to_N (a * 2 ^ e)) [] rest (Forall_nil _) Hstop) as H.
      cbn [app hval length Z.of_nat Z.opp] in H. rewrite H.
      replace (Z.to_N a * 2 ^ Z.to_N e) with (Z.to_N (a * 2 ^ e)) in Hj.
      2:{ rewrite Z2N.inj_mul by (try lia; apply Z.pow_nonneg; lia). f_equal. rewrite Z2N.inj_pow by lia. reflexivity. }
      destruct (dec_norm (Z.to_N (a * 2 ^ e)) 0) as [m' e']. injection Hj as <-. reflexivity.
    + (* a fraction *)
      destruct (e <? -9)%Z eqn:E9; [discriminate|].
      destruct (a / 2 ^ (- e) <? 1000000)%Z; [|discriminate]. apply some_inj in Hs. subst s.
      set (k := Z.to_nat (- e)). assert (- e = Z.of_nat k)%Z as Ek by lia. rewrite Ek in *.
      set (P := (2 ^ Z.of_nat k)%Z) in *. assert (0 < P)%Z as HP by (apply Z.pow_pos_nonneg; lia).
      set (ipz := (a / P)%Z). set (r := (a mod P)%Z).
      assert (a = P * ipz + r /\ 0 <= r < P)%Z as (Hdm & Hr) by (subst ipz r; split; [apply Z.div_mod; lia|apply Z.mod_pos_bound; lia]).
      assert (0 <= ipz)%Z as Hipz by (subst ipz; apply Z.div_pos; lia).
      assert (r <> 0)%Z as Hr0.
      { (* a is odd and P is even *)
        intros E0. assert (Z.odd a = true) as Hodd by (subst a; rewrite <- Hnorm; destruct m as [|q|q]; try reflexivity; destruct q; reflexivity).
        assert (exists P', P = 2 * P')%Z as (P' & EP).
        { subst P. destruct k as [|k']; [lia|]. exists (2 ^ Z.of_nat k')%Z. rewrite Nat2Z.inj_succ, Z.pow_succ_r by lia. reflexivity. }
        rewrite E0, EP in Hdm. rewrite Hdm in Hodd. replace (2 * P' * ipz + 0)%Z with (2 * (P' * ipz))%Z in Hodd by ring.
        rewrite Z.odd_mul in Hodd. discriminate. }
      destruct (frac_exact k 12 r (Z.to_N ipz) ltac:(lia) Hr) as (Hdig & Hlen & Hne & Heq).
      set (fd := frac_digits 12 r P) in *. specialize (Hne Hr0).
      rewrite dec_of_Z_nonneg, <- !app_assoc by lia.
      pose proof (json_number_dec (m <? 0)%Z (Z.to_N ipz) fd rest Hdig Hstop) as H.
      rewrite (frac_text_ne fd Hne) in H. cbn [app] in H |- *. rewrite H. clear H.
      (* the two decimals are the same number *)
      set (L := length fd) in *. set (M := hval fd (Z.to_N ipz)) in *.
      rewrite Z2N.id in Heq by lia.
      assert (Z.of_N M * P = (ipz * P + r) * 10 ^ Z.of_nat L)%Z as Heq' by exact Heq.
      assert (Z.of_N M * P = a * 10 ^ Z.of_nat L)%Z as HM by (rewrite Heq', Hdm; ring).
      assert (L <= k)%nat as HLk by exact Hlen.
      assert (0 < a * 10 ^ Z.of_nat L)%Z as Hpos by (apply Z.mul_pos_pos; [lia|apply Z.pow_pos_nonneg; lia]).
      assert (0 < M) as HMpos.
      { apply N.neq_0_lt_0. intros E0. rewrite <- HM, E0 in Hpos. discriminate. }
      assert (Z.to_N a * 5 ^ Z.to_N (Z.of_nat k) = M * 10 ^ N.of_nat (k - L)) as Evalue.
      { apply N2Z.inj. rewrite !N2Z.inj_mul, !N2Z.inj_pow. rewrite !Z2N.id by lia. rewrite nat_N_Z.
        change (Z.of_N 5) with 5%Z. change (Z.of_N 10) with 10%Z.
        (* multiply both sides by P = 2^k *)
        apply (Z.mul_reg_r _ _ P); [lia|].
        replace (a * 5 ^ Z.of_nat k * P)%Z with (a * 10 ^ Z.of_nat k)%Z.
        2:{ subst P. rewrite <- Z.mul_assoc, <- Z.pow_mul_l. reflexivity. }
        replace (Z.of_N M * 10 ^ Z.of_nat (k - L) * P)%Z with (Z.of_N M * P * 10 ^ Z.of_nat (k - L))%Z by ring.
        rewrite HM. rewrite <- Z.mul_assoc, <- Z.pow_add_r by lia. f_equal. f_equal. lia. }
      rewrite Evalue in Hj.
      replace e with (- Z.of_nat L - Z.of_N (N.of_nat (k - L)))%Z in Hj by (clear -Ek HLk; lia).
      rewrite dec_norm_shift_pow in Hj by exact HMpos.
      destruct (dec_norm M (- Z.of_nat L)) as [m' e']. injection Hj as <-. reflexivity.
Qed.
