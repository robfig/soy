(* Prefix determinism of the scanner, part 2: the look-ahead of each state function; the scanning loops and the
   functions every state calls. *)
From Soy Require Import Model.Bytes Model.Utf8 Model.Outcome Model.Token Model.Lexer Generated.Tables Proofs.LexPrefix.
From Coq Require Import ZifyBool Lia List.
Import ListNotations.
Open Scope Z_scope.
Set Default Proof Using "Type".

Definition M : Z := 24.       (* the uniform bound: every per-state margin below is at most M *)
Definition M0 : Z := 8.       (* the scanning loops *)
(* per-state look-ahead: how far before the end of the common prefix the cursor has to be AFTER the state function
   for the function to behave identically on both inputs.  4 = one rune of look-ahead of [next] (the model decodes
   up to four bytes); 8 = a rune read and a rune backed up or peeked; 12 = the keywords of css and literal
   blocks; 16 = lexSoyDoc; 24 = lexHeaderParam (keyword, type, white space backed up over). *)
Definition m_text : Z := 8.
Definition m_ldelim : Z := 4.
Definition m_rdelim : Z := 4.
Definition m_rdelim_end : Z := 4.
Definition m_begin_tag : Z := 4.
Definition m_inside : Z := 8.
Definition m_soydoc : Z := 16.
Definition m_linec : Z := 8.
Definition m_blockc : Z := 8.
Definition m_string : Z := 8.
Definition m_ident : Z := 8.
Definition m_header : Z := 24.
Definition m_css : Z := 12.
Definition m_literal : Z := 12.
Definition m_number : Z := 8.
Definition m_run : Z := 8.
Definition m_close : Z := 4.
Definition m_sdparam : Z := 12.

(* the states that are loops, and lexSoyDoc's: the cursor ends at most a rune behind where the loop began (the end of
   the input, for a cursor set beyond it: emit clamps) *)
Definition pmono (n : Z) (l : lx) (p : lstate * lx) : Prop := Z.min (l_pos l) n <= l_pos (snd p) + 4.

Ltac margins := unfold M0, m_text, m_ldelim, m_rdelim, m_rdelim_end, m_begin_tag, m_inside, m_soydoc, m_linec, m_blockc, m_string,
  m_ident, m_header, m_css, m_literal, m_number, m_run, m_close, m_sdparam in *.

(* a state function ends [m] before the end [h] of the common prefix and hands over to another *)
Definition live (h m : Z) (res : lstate * lx) : Prop := l_pos (snd res) + m <= h /\ fst res <> LDone.
(* where a loop that may end in an error item left the cursor *)
Definition spos (r : lstate * lx + lx) : Z := match r with inl e => l_pos (snd e) | inr l' => l_pos l' end.
Definition hpos (r : lstate * lx + Z * lx) : Z := match r with inl e => l_pos (snd e) | inr (_, l') => l_pos l' end.
(* where a piece of scanNumber left the lexer, early return or not *)
Definition sum_lx (r : N * lx + N * lx) : lx := match r with inl (_, l) => l | inr (_, l) => l end.
Definition skipped (l r : lx) : Prop := l_pos l <= l_pos r /\ 0 <= l_width r <= 4 /\ l_start r = l_pos r.
(* cursor arithmetic; for the fuel of a loop's second run, with [moved] *)
Ltac fin := unfold pmono, spos, hpos, sum_lx, live, skipped in *; margins; pos_lia.
Ltac fuel := unfold next_fact in *; unfold moved, eof in *; fin.
(* a return; the recursive call of a loop with induction hypothesis [ih]; a tail [K] proved beforehand for the reads
   it assumes done *)
Ltac ret := apply tr_ret; fin.
Tactic Notation "again" constr(ih) := apply (tr_loop ih); [intros ?; fuel|intros ? ?; fin].
Tactic Notation "from" constr(K) := eapply tr_pre; [apply K; fuel|fin].

Section Det.
Variable ul ud : Z -> bool.
Variable pre r1 r2 : bstr.
Variable base : Z.
Notation inp1 := (pre ++ r1).
Notation inp2 := (pre ++ r2).
Notation n1 := (Z.of_nat (length (pre ++ r1))).
Notation n2 := (Z.of_nat (length (pre ++ r2))).
Notation h := (Z.of_nat (length pre)).
Notation live := (live h).

Lemma accept_run_loop_tracks v f1 : forall l f2, (Z.to_nat (h - l_pos l) < f2)%nat ->
  tracks (fwd l) (fun r => l_pos r + 4 <= h) True (accept_run_loop inp1 n1 f1 v l) (accept_run_loop inp2 n2 f2 v l).
Proof.
  pose proof (h_le1 pre r1). induction f1 as [|f1 IH]; intros l [|f2] Hf; cbn [accept_run_loop]; [apply tr_diverge..|pos_lia|].
  step next_tracks as [r l1] F1. destruct (in_set v r).
  - again (IH l1).
  - ret.
Qed.
Lemma skip_space_loop_tracks f1 : forall l f2, (Z.to_nat (h - l_pos l) < f2)%nat ->
  tracks (fwd l) (fun r => l_pos r + 4 <= h) True (skip_space_loop inp1 n1 f1 l) (skip_space_loop inp2 n2 f2 l).
Proof.
  pose proof (h_le1 pre r1). induction f1 as [|f1 IH]; intros l [|f2] Hf; cbn [skip_space_loop]; [apply tr_diverge..|pos_lia|].
  step next_tracks as [r l1] F1. destruct (gen_isSpaceEOL r).
  - again (IH l1).
  - ret.
Qed.
Lemma soydoc_space_loop_tracks f1 : forall l f2, (Z.to_nat (h - l_pos l) < f2)%nat ->
  tracks (fwd l) (fun r => l_pos r + 4 <= h) True (soydoc_space_loop inp1 n1 f1 l) (soydoc_space_loop inp2 n2 f2 l).
Proof.
  pose proof (h_le1 pre r1). induction f1 as [|f1 IH]; intros l [|f2] Hf; cbn [soydoc_space_loop]; [apply tr_diverge..|pos_lia|].
  step next_tracks as [r l1] F1. destruct ((r =? eof) || negb (gen_isSpace r)).
  - ret.
  - again (IH l1).
Qed.
Lemma literal_space_loop_tracks f1 : forall ch l f2, (Z.to_nat (h - l_pos l) < f2)%nat ->
  tracks (fun r => l_pos l <= l_pos (snd r)) (fun r => l_pos (snd r) + 4 <= h) True
    (literal_space_loop inp1 n1 f1 ch l) (literal_space_loop inp2 n2 f2 ch l).
Proof.
  pose proof (h_le1 pre r1). induction f1 as [|f1 IH]; intros ch l [|f2] Hf; cbn [literal_space_loop]; [apply tr_diverge..|pos_lia|].
  destruct (gen_isSpace ch).
  - step next_tracks as [c l1] F1. again (IH c l1).
  - ret.
Qed.

Lemma line_comment_loop_tracks f1 : forall l f2, (Z.to_nat (h - l_pos l) < f2)%nat ->
  tracks (pmono n1 l) (fun r => l_pos (snd r) + M0 <= h) True (line_comment_loop inp1 n1 base f1 l) (line_comment_loop inp2 n2 base f2 l).
Proof.
  pose proof (h_le1 pre r1). induction f1 as [|f1 IH]; intros l [|f2] Hf; cbn [line_comment_loop]; [apply tr_diverge..|pos_lia|].
  step next_tracks as [r l1] F1. destruct (gen_isEndOfLine r || (r =? eof)).
  - unfold emit_to. step emit_tracks as l2 F2. ret.
  - again (IH l1).
Qed.
Lemma block_comment_loop_tracks f1 : forall star l f2, (Z.to_nat (h - l_pos l) < f2)%nat ->
  tracks (pmono n1 l) (fun r => l_pos (snd r) + M0 <= h) True
    (block_comment_loop inp1 n1 base f1 star l) (block_comment_loop inp2 n2 base f2 star l).
Proof.
  pose proof (h_le1 pre r1). induction f1 as [|f1 IH]; intros star l [|f2] Hf; cbn [block_comment_loop]; [apply tr_diverge..|pos_lia|].
  step next_tracks as [r l1] F1. destruct (r =? eof); [last errorf_tracks as e Fe; fin|].
  destruct (r =? 42); [again (IH true l1)|].
  destruct ((r =? 47) && star).
  - unfold emit_to. step emit_tracks as l2 F2. ret.
  - again (IH false l1).
Qed.
Lemma string_loop_tracks f1 : forall q l f2, (Z.to_nat (h - l_pos l) < f2)%nat ->
  tracks (pmono n1 l) (fun r => l_pos (snd r) + M0 <= h) True (string_loop inp1 n1 base f1 q l) (string_loop inp2 n2 base f2 q l).
Proof.
  pose proof (h_le1 pre r1). induction f1 as [|f1 IH]; intros q l [|f2] Hf; cbn [string_loop]; [apply tr_diverge..|pos_lia|].
  step next_tracks as [r l1] F1. destruct (r =? eof); [last errorf_tracks as e Fe; fin|].
  destruct (r =? 92).
  - step next_tracks as [r' l2] F2. again (IH q l2).
  - destruct (r =? q).
    + unfold emit_to. step emit_tracks as l2 F2. ret.
    + again (IH q l1).
Qed.
Lemma lex_text_loop_tracks f1 : forall r0 l f2, (Z.to_nat (h - l_pos l) < f2)%nat ->
  tracks (pmono n1 l) (fun r => l_pos (snd r) + M0 <= h) True (lex_text_loop inp1 n1 base f1 r0 l) (lex_text_loop inp2 n2 base f2 r0 l).
Proof.
  pose proof (h_le1 pre r1). induction f1 as [|f1 IH]; intros r0 l [|f2] Hf; cbn [lex_text_loop]; [apply tr_diverge..|pos_lia|].
  step next_tracks as [r l1] F1.
  (* the rest of the iteration, from any l2 not behind l whose last rune, un-read, lies at most a rune behind l *)
  pose (rest := fun inp n f l2 =>
    if r =? 123 then l3 <- maybe_emit_text inp n base (backup l2) 0 ;; Ok (LLeftDelim, l3)
    else if r =? 125 then errorf base e_close_brace l2
    else if r =? eof then l3 <- maybe_emit_text inp n base (backup l2) 0 ;; l4 <- emit inp n base itemEOF l3 ;; Ok (LDone, l4)
    else lex_text_loop inp n base f r l2).
  assert (K : forall l2, 0 <= l_pos l <= l_pos l2 -> l_pos l <= l_pos l2 - l_width l2 + 4 -> 0 <= l_width l2 <= 4 ->
    (l_pos l < n1 -> l_pos l < l_pos l2) ->
    tracks (pmono n1 l) (fun r => l_pos (snd r) + M0 <= h) (l_pos l2 + 4 <= h) (rest inp1 n1 f1 l2) (rest inp2 n2 f2 l2)).
  { intros l2 Hl2 Hb Hw Hm. unfold rest. branch; [step met_tracks as l3 F3; ret|].
    branch; [last errorf_tracks as e Fe; fin|].
    branch; [step met_tracks as l3 F3; step emit_tracks as l4 F4; ret|].
    again (IH r l2). }
  branch.
  - step next_tracks as [c2 l2] F2. branch; [branch|branch].
    + step met_tracks as l3 F3. apply tr_ret; destruct (negb (r0 =? 0)); fin.
    + from K.
    + step met_tracks as l3 F3. step next_tracks as [r3 l4] F4. branch.
      * step peek_tracks as [r4 l5] F5. branch; ret.
      * ret.
    + from K.
  - from K.
Qed.

Lemma css_loop_tracks f1 : forall l f2, (Z.to_nat (h - l_pos l) < f2)%nat ->
  tracks (fun r => match r with inl e => l_pos l <= l_pos (snd e) /\ fst e = LDone | inr l' => fwd l l' end)
    (fun r => spos r + M0 <= h) True (css_loop inp1 n1 base f1 l) (css_loop inp2 n2 base f2 l).
Proof.
  pose proof (h_le1 pre r1). induction f1 as [|f1 IH]; intros l [|f2] Hf; cbn [css_loop]; [apply tr_diverge..|pos_lia|].
  step next_tracks as [r l1] F1. branch; [step errorf_tracks as e Fe; apply tr_ret; [split; [fin|apply Fe]|fin]|].
  branch; [ret|].
  apply (tr_loop (IH l1)); [intros Hq|intros [e|l'] Fa]; [fuel|split; [split; [fin|apply Fa]|fin]|fin].
Qed.
Lemma header_type_loop_tracks f1 : forall lns l f2, lns <= l_pos l -> (Z.to_nat (h - l_pos l) < f2)%nat ->
  tracks (fun r => match r with
                   | inl e => l_pos l <= l_pos (snd e) /\ fst e = LDone
                   | inr (lns', l') => fwd l l' /\ lns <= lns' <= l_pos l'
                   end)
    (fun r => hpos r + M0 <= h) True (header_type_loop inp1 n1 base f1 lns l) (header_type_loop inp2 n2 base f2 lns l).
Proof.
  pose proof (h_le1 pre r1). induction f1 as [|f1 IH]; intros lns l [|f2] Hl Hf; cbn [header_type_loop]; [apply tr_diverge..|pos_lia|].
  step next_tracks as [ch l1] F1. branch; [ret|].
  branch; [step errorf_tracks as e Fe; apply tr_ret; [split; [fin|apply Fe]|fin]|].
  assert (Hl' : lns <= (if negb (gen_isSpace ch) then l_pos l1 else lns) <= l_pos l1) by (destruct (negb (gen_isSpace ch)); fin).
  apply (tr_loop (fun f => IH _ l1 f (proj2 Hl'))); [intros Hq|intros [e|[lns' l']] Fa]; [fuel|split; [split; [fin|apply Fa]|fin]|fin].
Qed.
Lemma soydoc_ident_loop_tracks f1 : forall l f2, (Z.to_nat (h - l_pos l) < f2)%nat ->
  tracks (fun r => Z.min (l_pos l) n1 <= l_pos r + 1) (fun r => l_pos r + M0 <= h) True
    (soydoc_ident_loop inp1 n1 base f1 l) (soydoc_ident_loop inp2 n2 base f2 l).
Proof.
  pose proof (h_le1 pre r1). induction f1 as [|f1 IH]; intros l [|f2] Hf; cbn [soydoc_ident_loop]; [apply tr_diverge..|pos_lia|].
  step next_tracks as [r l1] F1. branch; [last emit_tracks as l2 F2; fin|].
  branch; [step emit_tracks as l2 F2; apply tr_ret; destruct (gen_isSpace r); fin|].
  again (IH l1).
Qed.

(* `cond && f(l.peek())`: the peek happens only if cond holds *)
Lemma peek_when_tracks (b : bool) (f : Z -> bool) l :
  tracks (fun a => l_pos (snd a) = l_pos l /\ l_start (snd a) = l_start l /\ (l_width (snd a) = l_width l \/ 0 <= l_width (snd a) <= 4))
    (fun _ => l_pos l + 4 <= h) True
    (if b then '(p, l') <- peek inp1 n1 l ;; Ok (f p, l') else Ok (false, l))
    (if b then '(p, l') <- peek inp2 n2 l ;; Ok (f p, l') else Ok (false, l)).
Proof.
  destruct b; [|ret]. step peek_tracks as [p l'] Fp. ret.
Qed.

Lemma accept_run_tracks v l :
  tracks (fun a => lmono l (snd a)) (fun a => l_pos (snd a) + m_run <= h) True (accept_run inp1 n1 v l) (accept_run inp2 n2 v l).
Proof.
  unfold accept_run. step accept_run_loop_tracks as r Fr. ret.
Qed.

Lemma skip_space_tracks l : tracks (skipped l) (fun r => l_pos r + m_run <= h) True (skip_space inp1 n1 l) (skip_space inp2 n2 l).
Proof.
  unfold skip_space. step skip_space_loop_tracks as r Fr. ret.
Qed.

Lemma double_close_tracks l :
  tracks (fun r => match r with
                   | inl e => l_pos l <= l_pos (snd e) /\ fst e = LDone
                   | inr l' => l_pos l <= l_pos l' <= l_pos l + 4 /\ l_start l' = l_start l
                   end)
    (fun r => spos r + m_close <= h) True (double_close inp1 n1 base l) (double_close inp2 n2 base l).
Proof.
  unfold double_close. branch; [|ret].
  step next_tracks as [r l1] F1. branch; [step errorf_tracks as e Fe; apply tr_ret; [split; [fin|apply Fe]|fin]|ret].
Qed.

(* an error item is not live *)
Lemma tr_dead (Q : Prop) m e : fst e = LDone -> tracks (fun _ => True) (live m) Q (Ok e) (Ok e).
Proof. intros He. apply tr_ret; [exact I|]. intros [_ Hl]. destruct (Hl He). Qed.
Lemma errorf_live c l m (Q : Prop) : tracks (fun _ => True) (live m) Q (errorf base c l) (errorf base c l).
Proof. intros e E. split; [exact I|]. intros [_ Hl]. apply errorf_facts in E. destruct (Hl (proj2 E)). Qed.

Lemma alnum_loop_tracks f1 : forall l f2, (Z.to_nat (h - l_pos l) < f2)%nat ->
  tracks (fwd l) (fun r => l_pos r + 4 <= h) True (alnum_loop ul ud inp1 n1 f1 l) (alnum_loop ul ud inp2 n2 f2 l).
Proof.
  pose proof (h_le1 pre r1). induction f1 as [|f1 IH]; intros l [|f2] Hf; cbn [alnum_loop]; [apply tr_diverge..|pos_lia|].
  step next_tracks as [r l1] F1. destruct (is_alnum ul ud r).
  - again (IH l1).
  - ret.
Qed.

Lemma accept_run_det v l res : accept_run inp1 n1 v l = Ok res -> l_pos (snd res)+ m_run <= h ->
  accept_run inp2 n2 v l = Ok res.
Proof using All. exact (tracks_det _ _ _ _ _ (accept_run_tracks v l) res). Qed.

Lemma skip_space_det l res : skip_space inp1 n1 l = Ok res -> l_pos res+ m_run <= h ->
  skip_space inp2 n2 l = Ok res.
Proof using All. exact (tracks_det _ _ _ _ _ (skip_space_tracks l) res). Qed.

Lemma double_close_det l res : double_close inp1 n1 base l = Ok res ->
  (match res with inl e => l_pos (snd e) | inr l' => l_pos l' end)+ m_close <= h ->
  double_close inp2 n2 base l = Ok res.
Proof using All. exact (tracks_det _ _ _ _ _ (double_close_tracks l) res). Qed.
End Det.
