(* The scanner on the text of a printed expression: composition of the token lemmas.

   [lexes P F txt ts Q]: from lexInsideTag with the cursor at txt ++ s, where the type of the last item
   sent satisfies P and what follows satisfies F, the machine reaches lexInsideTag with the cursor at s
   having sent exactly the items ts (types and texts, in order), and the type of the last item sent then
   satisfies Q.  P and Q carry the unary/binary decision for "-": an operand must start where the last
   item does not end a term, and ends with one that does. *)
From Soy Require Import Model.Bytes Model.Utf8 Model.Outcome Model.Token Generated.Tables Model.Lexer
  Proofs.Utf8Proofs Proofs.LexerPrim Proofs.LexerStates Proofs.LexTokens Proofs.LexNumbers Proofs.LexStrings.
From Coq Require Import ZifyBool Lia.
Open Scope Z_scope.

(* items sent between two lexer states, as (type, text) pairs in order *)
Inductive sends : list (N * bstr) -> lx -> lx -> Prop :=
| sends_nil l l' : unsent l l' -> sends [] l l'
| sends_cons t w ts l l1 l' : sent t w l l1 -> sends ts l1 l' -> sends ((t, w) :: ts) l l'.

Lemma unsent_refl l : unsent l l. Proof. repeat split. Qed.

Lemma sent_unsent_l t w l l0 l1 : unsent l l0 -> sent t w l0 l1 -> sent t w l l1.
Proof. intros (A & B & C) (p & H1 & H2 & H3). exists p. repeat split; congruence. Qed.
Lemma sent_unsent_r t w l l1 l2 : sent t w l l1 -> unsent l1 l2 -> sent t w l l2.
Proof. intros (p & H1 & H2 & H3) (A & B & C). exists p. repeat split; congruence. Qed.

Lemma sends_unsent_l ts l l0 l' : unsent l l0 -> sends ts l0 l' -> sends ts l l'.
Proof.
  intros Hu Hs. destruct Hs as [l0 l' Hu'|t w ts l0 l1 l' Hsent Hs].
  - constructor. eapply unsent_trans; eassumption.
  - econstructor; [eapply sent_unsent_l; eassumption|exact Hs].
Qed.

Lemma sends_unsent_r ts : forall l l1 l', sends ts l l1 -> unsent l1 l' -> sends ts l l'.
Proof.
  induction ts as [|[t w] ts IH]; intros l l1 l' Hs Hu; inversion Hs as [? ? Hu0|? ? ? ? l2 ? Hsent Hrest]; subst.
  - constructor. eapply unsent_trans; eassumption.
  - econstructor; [exact Hsent|]. eapply IH; eassumption.
Qed.

Lemma sends_app ts1 : forall ts2 l l1 l', sends ts1 l l1 -> sends ts2 l1 l' -> sends (ts1 ++ ts2) l l'.
Proof.
  induction ts1 as [|[t w] ts1 IH]; intros ts2 l l1 l' H1 H2; inversion H1 as [? ? Hu0|? ? ? ? l2 ? Hsent Hrest]; subst; cbn [app].
  - eapply sends_unsent_l; eassumption.
  - econstructor; [exact Hsent|]. eapply IH; eassumption.
Qed.

Lemma sends_one t w l l' : sent t w l l' -> sends [(t, w)] l l'.
Proof. intros H. econstructor; [exact H|]. constructor. apply unsent_refl. Qed.

(* what sends says about the item list: the items sent are the new head of l_out, in reverse *)
Lemma sends_out ts : forall l l', sends ts l l' ->
  exists items, l_out l' = rev items ++ l_out l /\ map (fun it => (t_typ it, t_val it)) items = ts /\ l_dd l' = l_dd l.
Proof.
  induction ts as [|[t w] ts IH]; intros l l' Hs; inversion Hs as [? ? Hu0|? ? ? ? l2 ? Hsent Hrest]; subst.
  - exists []. destruct Hu0 as (A & B & C). cbn. auto.
  - destruct Hsent as (p & A & B & C). destruct (IH _ _ Hrest) as (items & Ho & Hm & Hd).
    exists ({| t_typ := t; t_pos := p; t_val := w |} :: items). cbn [rev map]. rewrite Ho, A, <- app_assoc. cbn. rewrite Hm. split; [reflexivity|]. split; [reflexivity|congruence].
Qed.

Section Lexes.
Variable uni_letter uni_digit : Z -> bool.
Variable inp : bstr.
Variable base : Z.
Notation steps := (steps uni_letter uni_digit inp base).
Notation span := (span inp).

Definition last_typ (l : lx) : N := t_typ (l_last l).

Definition lexes (P : N -> Prop) (F : bstr -> Prop) (txt : bstr) (ts : list (N * bstr)) (Q : N -> Prop) : Prop :=
  forall l s, span l [] (txt ++ s) -> P (last_typ l) -> F s ->
  exists k l', steps k LInsideTag l = Ok (LInsideTag, l') /\ span l' [] s /\ sends ts l l' /\ Q (last_typ l').

Lemma lexes_seq P F1 t1 ts1 Q1 P2 F2 t2 ts2 Q2 :
  lexes P F1 t1 ts1 Q1 -> lexes P2 F2 t2 ts2 Q2 ->
  (forall s, F2 s -> F1 (t2 ++ s)) -> (forall ty, Q1 ty -> P2 ty) ->
  lexes P F2 (t1 ++ t2) (ts1 ++ ts2) Q2.
Proof.
  intros H1 H2 HF HQ l s Hs HP HF2. rewrite <- app_assoc in Hs.
  destruct (H1 l (t2 ++ s) Hs HP (HF s HF2)) as (k1 & l1 & Hst1 & Hs1 & Hse1 & HQ1).
  destruct (H2 l1 s Hs1 (HQ _ HQ1) HF2) as (k2 & l2 & Hst2 & Hs2 & Hse2 & HQ2).
  exists (k1 + k2)%nat, l2. split; [rewrite (steps_app _ _ _ _ k1 k2 _ _ _ _ Hst1); exact Hst2|].
  split; [exact Hs2|]. split; [eapply sends_app; eassumption|exact HQ2].
Qed.

Lemma lexes_weaken (P P' : N -> Prop) (F F' : bstr -> Prop) txt ts (Q Q' : N -> Prop) :
  lexes P F txt ts Q -> (forall ty, P' ty -> P ty) -> (forall s, F' s -> F s) -> (forall ty, Q ty -> Q' ty) ->
  lexes P' F' txt ts Q'.
Proof.
  intros H HP HF HQ l s Hs HP' HF'. destruct (H l s Hs (HP _ HP') (HF _ HF')) as (k & l' & A & B & C & D).
  exists k, l'. auto.
Qed.

End Lexes.

Definition opnd (ty : N) : Prop := ends_term ty = false.     (* an operand may start here *)
Definition term (ty : N) : Prop := ends_term ty = true.      (* the last item ends a term *)
Definition anyty (ty : N) : Prop := True.
Definition anys (s : bstr) : Prop := True.

(* what follows a printed (sub)expression: end of input, a space, ) ] , : | } or the "/" of a self-closing tag's "/}" *)
Definition fexp (s : bstr) : Prop :=
  match s with [] => True | c :: _ => (c = 32 \/ c = 41 \/ c = 93 \/ c = 44 \/ c = 58 \/ c = 124 \/ c = 125 \/ c = 47)%N end.

Lemma fexp_stops s : fexp s -> stops s.
Proof. destruct s as [|c s]; cbn; [auto|]. intros H. unfold alnum_b, letter_b, digit_b. lia. Qed.

Section Wrap.
Variable uni_letter uni_digit : Z -> bool.
Hypothesis letter_ascii : forall c, (c < 128)%N -> uni_letter (Z.of_N c) = ((65 <=? c) && (c <=? 90) || (97 <=? c) && (c <=? 122))%N.
Hypothesis digit_ascii : forall c, (c < 128)%N -> uni_digit (Z.of_N c) = digit_b c.
Hypothesis letter_eof : uni_letter (-1) = false.
Hypothesis digit_eof : uni_digit (-1) = false.
Variable inp : bstr.
Variable base : Z.
Notation steps := (steps uni_letter uni_digit inp base).
Notation span := (span inp).
Notation lexes := (lexes uni_letter uni_digit inp base).

(* every lemma of this section takes the four hypotheses, whether its proof needs them or not: outside the section
   all of them have the same leading arguments, and the files that use them apply them through one notation
   (W lem := lem uni_letter uni_digit letter_ascii digit_ascii letter_eof digit_eof inp ...) *)
Definition HYPS := conj letter_ascii (conj digit_ascii (conj letter_eof digit_eof)).

Lemma sent_last t w l l' : sent t w l l' -> last_typ l' = t.
Proof. intros (p & _ & H & _). unfold last_typ. rewrite H. reflexivity. Qed.

(* adapter: a one-item lemma gives a [lexes] fact *)
Lemma lexes_tok (P : N -> Prop) (F : bstr -> Prop) w t :
  (forall l s, span l [] (w ++ s) -> P (last_typ l) -> F s ->
     exists k l', steps k LInsideTag l = Ok (LInsideTag, l') /\ span l' [] s /\ sent t w l l') ->
  lexes P F w [(t, w)] (eq t).
Proof.
  pose proof HYPS as Hyps.
  intros H l s Hs HP HF. destruct (H l s Hs HP HF) as (k & l' & A & B & C).
  exists k, l'. split; [exact A|]. split; [exact B|]. split; [apply sends_one; exact C|]. symmetry. eapply sent_last; exact C.
Qed.

Lemma lexes_step k (P : N -> Prop) (F : bstr -> Prop) w t :
  (forall l s, span l [] (w ++ s) -> P (last_typ l) -> F s ->
     exists l', steps k LInsideTag l = Ok (LInsideTag, l') /\ span l' [] s /\ sent t w l l') ->
  lexes P F w [(t, w)] (eq t).
Proof. intros H. apply lexes_tok. intros l s Hs HP HF. destruct (H l s Hs HP HF) as (l' & R). exists k, l'. exact R. Qed.

Lemma lexes_space P : lexes P anys [32%N] [] P.
Proof.
  pose proof HYPS as Hyps.
  intros l s Hs HP _. cbn [app] in Hs. destruct (lex_space uni_letter uni_digit inp base l 32%N s Hs ltac:(reflexivity)) as (l' & A & B & C).
  exists 1%nat, l'. split; [exact A|]. split; [exact B|]. split; [constructor; exact C|].
  destruct C as (_ & C & _). unfold last_typ. rewrite C. exact HP.
Qed.

Lemma lexes_punct c t : assoc c punct_table = Some t -> lexes anyty anys [c] [(t, [c])] (eq t).
Proof.
  pose proof HYPS as Hyps.
  intros Ht. apply (lexes_step 1). intros l s Hs _ _. exact (lex_punct uni_letter uni_digit inp base l c t s Hs Ht).
Qed.

Lemma lexes_word c0 cs : (c0 < 128)%N -> letter_b c0 = true -> forallb (fun c => (c <? 128)%N && alnum_b c) cs = true ->
  word_type (c0 :: cs) <> itemLiteral -> word_type (c0 :: cs) <> itemCss ->
  lexes anyty stops (c0 :: cs) [(word_type (c0 :: cs), c0 :: cs)] (eq (word_type (c0 :: cs))).
Proof.
  intros H0 H1 H2 H3 H4. apply (lexes_step 2). intros l s Hs _ Hst.
  exact (lex_word uni_letter uni_digit letter_ascii digit_ascii letter_eof digit_eof inp base l c0 cs s Hs H0 H1 H2 Hst H3 H4).
Qed.

Definition alnums (cs : bstr) : Prop := forallb (fun c => (c <? 128)%N && alnum_b c) cs = true.

Lemma lexes_dollar cs : alnums cs -> lexes anyty stops (36%N :: cs) [(itemDollarIdent, 36%N :: cs)] (eq itemDollarIdent).
Proof.
  intros H. apply (lexes_step 2). intros l s Hs _ Hst.
  exact (lex_dollar uni_letter uni_digit letter_ascii digit_ascii letter_eof digit_eof inp base l cs s Hs H Hst).
Qed.

Lemma lexes_dot cs (dig : bool) : alnums cs ->
  lexes anyty (fun s => stops s /\ head_digit (cs ++ s) = dig) (46%N :: cs)
        [(if dig then itemDotIndex else itemDotIdent, 46%N :: cs)] (eq (if dig then itemDotIndex else itemDotIdent)).
Proof.
  intros H. apply (lexes_step 2). intros l s Hs _ [Hst <-].
  exact (lex_dot uni_letter uni_digit letter_ascii digit_ascii letter_eof digit_eof inp base l cs s Hs H Hst).
Qed.

Lemma lexes_qdot cs (dig : bool) : alnums cs ->
  lexes anyty (fun s => stops s /\ head_digit (cs ++ s) = dig) (63%N :: 46%N :: cs)
        [(if dig then itemQuestionDotIndex else itemQuestionDotIdent, 63%N :: 46%N :: cs)]
        (eq (if dig then itemQuestionDotIndex else itemQuestionDotIdent)).
Proof.
  intros H. apply (lexes_step 2). intros l s Hs _ [Hst <-].
  exact (lex_qdot uni_letter uni_digit letter_ascii digit_ascii letter_eof digit_eof inp base l cs s Hs H Hst).
Qed.

Lemma lexes_qkey : lexes anyty anys [63; 91]%N [(itemQuestionKey, [63; 91]%N)] (eq itemQuestionKey).
Proof.
  pose proof HYPS as Hyps.
  apply (lexes_step 1). intros l s Hs _ _.
  exact (lex_q2 uni_letter uni_digit inp base l 91%N itemQuestionKey s Hs (or_introl (conj eq_refl eq_refl))).
Qed.

Lemma lexes_elvis : lexes anyty anys [63; 58]%N [(itemElvis, [63; 58]%N)] (eq itemElvis).
Proof.
  pose proof HYPS as Hyps.
  apply (lexes_step 1). intros l s Hs _ _.
  exact (lex_q2 uni_letter uni_digit inp base l 58%N itemElvis s Hs (or_intror (conj eq_refl eq_refl))).
Qed.

(* operators followed by a space *)
Definition sp_follows (s : bstr) : Prop := match s with 32%N :: _ => True | _ => False end.
Lemma sp_follows_inv s : sp_follows s -> exists s', s = 32%N :: s'.
Proof.
  pose proof HYPS as Hyps.
  destruct s as [|c s]; [contradiction|]. intros H. destruct (N.eqb_spec c 32) as [->|]; [eauto|].
  exfalso. destruct c as [|p]; try contradiction. do 6 (destruct p as [p|p|]; try contradiction).
Qed.

(* "?" before a space *)
Lemma lexes_ternif : lexes anyty (fun s => match s with 32%N :: _ => True | _ => False end) [63%N] [(itemTernIf, [63%N])] (eq itemTernIf).
Proof.
  pose proof HYPS as Hyps.
  apply (lexes_step 1). intros l s Hs _ HF. destruct (sp_follows_inv s HF) as (s' & ->).
  exact (lex_ternif uni_letter uni_digit inp base l (32%N :: s') Hs ltac:(cbn; lia) ltac:(repeat split; lia)).
Qed.

Lemma lexes_sub : lexes term anys [45%N] [(itemSub, [45%N])] (eq itemSub).
Proof.
  pose proof HYPS as Hyps.
  apply (lexes_step 1). intros l s Hs HP _. exact (lex_sub uni_letter uni_digit inp base l s Hs HP).
Qed.

Lemma lexes_negate : lexes opnd (fun s => head_ascii s /\ head_digit s = false) [45%N] [(itemNegate, [45%N])] (eq itemNegate).
Proof.
  pose proof HYPS as Hyps.
  apply (lexes_step 1). intros l s Hs HP [Ha Hd]. exact (lex_negate uni_letter uni_digit inp base l s Hs HP Ha Hd).
Qed.

Lemma lexes_div : lexes anyty sp_follows [47%N] [(itemDiv, [47%N])] (eq itemDiv).
Proof.
  pose proof HYPS as Hyps.
  apply (lexes_step 1). intros l s Hs _ HF. destruct (sp_follows_inv s HF) as (s' & ->).
  exact (lex_div uni_letter uni_digit inp base l _ Hs ltac:(cbn; lia) ltac:(cbn; lia)).
Qed.

Lemma lexes_cmp1 c t : (c = 60 /\ t = itemLt \/ c = 62 /\ t = itemGt)%N -> lexes anyty sp_follows [c] [(t, [c])] (eq t).
Proof.
  pose proof HYPS as Hyps.
  intros Hc. apply (lexes_step 1). intros l s Hs _ HF. destruct (sp_follows_inv s HF) as (s' & ->).
  exact (lex_cmp1 uni_letter uni_digit inp base l c t _ Hs Hc ltac:(cbn; lia) ltac:(cbn; lia)).
Qed.

Lemma lexes_cmp2 c t : (c = 60 /\ t = itemLte \/ c = 62 /\ t = itemGte \/ c = 33 /\ t = itemNotEq)%N ->
  lexes anyty anys [c; 61%N] [(t, [c; 61%N])] (eq t).
Proof.
  pose proof HYPS as Hyps.
  intros Hc. apply (lexes_step 1). intros l s Hs _ _. exact (lex_cmp2 uni_letter uni_digit inp base l c t _ Hs Hc).
Qed.

Lemma lexes_eqeq : lexes anyty anys [61; 61]%N [(itemEq, [61; 61]%N)] (eq itemEq).
Proof.
  pose proof HYPS as Hyps.
  apply (lexes_step 1). intros l s Hs _ _. exact (lex_eqeq uni_letter uni_digit inp base l _ Hs).
Qed.

Lemma lexes_number hs ip frac ex : num_ok ip frac ex ->
  lexes (fun ty => hs = true -> opnd ty) (num_follow frac ex) (num_text hs ip frac ex)
        [(num_type frac ex, num_text hs ip frac ex)] (eq (num_type frac ex)).
Proof.
  intros Hok. apply (lexes_step 2). intros l s Hs HP HF. destruct hs.
  - exact (lex_number_neg uni_letter uni_digit letter_ascii digit_ascii letter_eof digit_eof inp base l ip frac ex s Hs (HP eq_refl) Hok HF).
  - exact (lex_number_pos uni_letter uni_digit letter_ascii digit_ascii letter_eof digit_eof inp base l ip frac ex s Hs Hok HF).
Qed.

Lemma lexes_string rs : Forall valid_scalar rs -> str_body_ok 39 rs = true ->
  lexes anyty anys (39%N :: string_of_runes rs ++ [39%N]) [(itemString, 39%N :: string_of_runes rs ++ [39%N])] (eq itemString).
Proof.
  pose proof HYPS as Hyps.
  intros Hv Hok. apply (lexes_step 2). intros l s Hs _ _. cbn [app] in Hs. rewrite <- app_assoc in Hs.
  exact (lex_string_tok uni_letter uni_digit inp base l 39%N rs s (or_introl eq_refl) Hs Hv Hok).
Qed.

End Wrap.
