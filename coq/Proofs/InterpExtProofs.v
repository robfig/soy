(* The extended walker of Model/InterpExt.v (installed functions and print directives as arbitrary Gallina
   functions of their arguments):
   (A) the generic induction principle of Proofs/InterpLogic.v carries over: a predicate on computations closed
       under [walker_logic] holds of [walk_x], provided the results of the installed functions are acceptable to
       [lift] ([walk_logic_x]); so does the invariant principle ([inv_walk_x]);
   (B) without installed entries the extended walker IS the walker ([walk_x_no_ext], by the relational principle
       of Proofs/InterpRel.v with "the same run" as the relation);
   (C) C08 over configurations with installed functions and directives: no render writes through the caller's
       maps, a render leaves what renders share as it found it, the result of a render is independent of the history
       before it. *)
From Soy Require Import Model.Bytes Model.Num Model.Values Model.Outcome Model.Ast
  Model.Escape Model.Directives Model.Print Generated.Tables Model.Interp Model.InterpExt Model.History
  Proofs.InterpLogic Proofs.InterpGuard Proofs.InterpRel Proofs.PurityProofs.
Require Import Lia.
Open Scope N_scope.

(* (A) the generic principle *)

Section GenericX.
Variable cf : cfg.
Variable ux : user_ext.
Variable Phi : forall A : Type, M A -> Prop.
Arguments Phi {A} _.
Variable pure_ok : forall A : Type, outcome A -> Prop.
Arguments pure_ok {A} _.

Hypothesis L : walker_logic (@Phi) (@pure_ok).
Hypothesis PS : pure_sites (@pure_ok).
(* what an installed function returns, and what the installed directives make of a value, is acceptable *)
Hypothesis PU_func : forall name ar f vs, ux_func ux name = Some (ar, f) -> pure_ok (f vs).
Hypothesis PU_print : forall m ds v, pure_ok (print_writes_x ux m ds v).
Hypothesis PU_dirs : forall ds v esc, pure_ok (apply_directives_x ux ds v esc).

Ltac phi_bind := apply (wl_bind _ _ L); [ | intro ].
Ltac phi_leaf :=
  first [ apply (wl_ret _ _ L) | apply (wl_fail _ _ L) | apply (wl_write _ _ L) | apply (wl_set _ _ L)
        | apply (wl_lookup _ _ L) | apply (wl_fresh_list _ _ L) | apply (wl_fresh_list_or_nil _ _ L)
        | apply (wl_fresh_map _ _ L) | apply (wl_set_cur _ _ L) | apply (wl_template_mode _ _ L) ].

Section BodyX.
Variable w : node -> M value.
Hypothesis Hw : forall n, Phi (w n).

Lemma phi_print_dirs_x l : forall v, Phi (print_dirs_x cf ux w l v).
Proof.
  induction l as [|d r IH]; intros v; cbn [print_dirs_x]; [phi_leaf|].
  destruct d; try phi_leaf.
  destruct (dir_entry_x ux name) as [[arglens ?]|]; [|phi_leaf].
  destruct (negb _); [phi_leaf|].
  phi_bind; [apply (phi_eval_list _ _ L w Hw)|]. phi_bind; [apply (wl_lift _ _ L); apply PU_dirs|].
  phi_bind; [apply IH|]. phi_leaf.
Qed.

Lemma phi_print_x arg dirs : Phi (print_x cf ux w arg dirs).
Proof.
  unfold print_x. phi_bind; [apply Hw|].
  destruct x; try phi_leaf;
    (phi_bind; [apply phi_print_dirs_x|];
     phi_bind;
     [ match goal with
       | |- Phi (st <-- get ;;; lift (print_writes_x _ (mode st) ?ds ?v)) =>
           apply (wl_read_mode _ _ L _ (fun m => lift (print_writes_x ux m ds v)));
           intro; apply (wl_lift _ _ L); apply PU_print
       end
     | phi_bind; [apply (phi_write_all _ _ L) | phi_leaf] ]).
Qed.

Lemma phi_msg_part mb body : forall part, Phi (msg_part w mb body part).
Proof.
  fix IH 1. intros part. destruct part; cbn [msg_part]; try phi_leaf.
  - (* NMsgPlural *)
    destruct (find_plural_value _ _) as [pv|]; [|phi_leaf].
    phi_bind; [apply (phi_eval _ _ L w Hw)|].
    destruct x; try phi_leaf.
    match goal with
    | |- Phi (match nth_error ?rs ?k with _ => _ end) =>
        assert (Hruns : forall j m, nth_error rs j = Some (Some m) -> Phi m);
        [ | destruct (nth_error rs k) as [[m|]|] eqn:Hn; [eapply Hruns; exact Hn | phi_leaf | phi_leaf] ]
    end.
    induction cases as [|c r IHr]; intros j m Hj.
    + destruct j; discriminate.
    + destruct j as [|j]; cbn [map nth_error] in Hj.
      * destruct c; try discriminate. inversion Hj; subst m. clear Hj.
        match goal with
        | |- Phi ((fix go (l : list node) {struct l} : M unit := _) ?l) => induction l as [|x0 r0 IHr0]
        end; [phi_leaf|]. phi_bind; [apply IH | exact IHr0].
      * eapply IHr. exact Hj.
  - (* NIdent *)
    destruct (msg_placeholder _ _) as [ph|]; [|phi_leaf]. phi_bind; [apply Hw | phi_leaf].
Qed.

Lemma phi_msg_parts mb body parts : Phi (msg_parts w mb body parts).
Proof.
  induction parts as [|x r IH]; cbn [msg_parts]; [phi_leaf|].
  phi_bind; [apply phi_msg_part | exact IH].
Qed.

Lemma phi_call_func_x ar f args : (forall vs, pure_ok (f vs)) -> Phi (call_func_x w ar f args).
Proof.
  intros Hf. unfold call_func_x. destruct (negb _); [phi_leaf|].
  phi_bind; [apply (phi_eval_list _ _ L w Hw)|].
  phi_bind; [apply (wl_lift _ _ L); apply Hf|].
  destruct x0; phi_leaf.
Qed.

Lemma phi_walk_body_x n : Phi (walk_body_x cf ux w n).
Proof.
  destruct n; try apply (phi_walk_body cf _ _ L PS w Hw); cbn [walk_body_x].
  - (* NFunc *)
    destruct (_ || _ || _); [apply (phi_walk_body cf _ _ L PS w Hw)|].
    destruct (ux_func ux name) as [[ar f]|] eqn:Hu; [|apply (phi_walk_body cf _ _ L PS w Hw)].
    phi_bind; [phi_leaf|]. apply phi_call_func_x. intros vs. eapply PU_func. exact Hu.
  - (* NPrint *)
    destruct (print_uses_installed cf ux dirs); [|apply (phi_walk_body cf _ _ L PS w Hw)].
    phi_bind; [phi_leaf|]. apply phi_print_x.
  - (* NMsg *)
    destruct (msg_translation cf id) as [[mb parts]|]; [|apply (phi_walk_body cf _ _ L PS w Hw)].
    phi_bind; [phi_leaf|]. phi_bind; [apply phi_msg_parts | phi_leaf].
Qed.
End BodyX.

Theorem walk_logic_x : forall fuel n, Phi (walk_x cf ux fuel n).
Proof.
  induction fuel as [|f IH]; intros n; cbn [walk_x].
  - apply (wl_lift _ _ L). apply (ps_fuel _ PS).
  - apply phi_walk_body_x. exact IH.
Qed.
End GenericX.

(* the invariant form, with every fault allowed: nothing is asked of the installed entries *)
Theorem inv_walk_x I R E (C : inv_conditions I R E (fun _ => True)) cf ux :
  forall fuel n, inv_spec I R E (fun _ => True) (walk_x cf ux fuel n).
Proof.
  apply (walk_logic_x cf ux _ _ (inv_logic I R E (fun _ => True) C) pure_sites_any).
  - intros name ar f vs _. unfold inv_pure_ok. destruct (classify (f vs)); exact Logic.I.
  - intros m ds v. unfold inv_pure_ok. destruct (classify _); exact Logic.I.
  - intros ds v esc. unfold inv_pure_ok. destruct (classify _); exact Logic.I.
Qed.

(* (B) conservativity *)

Definition same {A} (m1 m2 : M A) : Prop := forall st, m1 st = m2 st.

Lemma same_refl {A} (m : M A) : same m m.
Proof. intros st. reflexivity. Qed.

Lemma same_bind {A B} (m1 m2 : M A) (f1 f2 : A -> M B) :
  same m1 m2 -> (forall x, same (f1 x) (f2 x)) -> same (mbind m1 f1) (mbind m2 f2).
Proof.
  intros Hm Hf st. unfold mbind. rewrite (Hm st).
  destruct (m2 st) as [[x|e|e| | | ] s]; try reflexivity. apply Hf.
Qed.

Lemma same_logic : walker_logic_r (fun _ => true) (@same) (@same value) (fun _ _ => True).
Proof.
  constructor; intros; try apply same_refl.
  - intros st. rewrite <- H, <- H0. apply H1.
  - apply same_bind; assumption.
  - intros st. apply (H (mode st) st).
  - intros st. apply (H (ctx st) st).
  - apply same_bind; [apply same_refl|]. intros _.
    apply same_bind; [assumption|]. intros _. apply same_refl.
  - intros st. rewrite !eval_eq, (H st). reflexivity.
  - intros st. rewrite !render_block_eq, (H (buf_pushed st)). reflexivity.
  - intros st. rewrite !call_enter_eq. cbn zeta. rewrite (H (entered st callee cd)). reflexivity.
Qed.

Lemma same_pure_sites : pure_sites (fun _ _ => True).
Proof. constructor; intros; exact Logic.I. Qed.

(* [walk_body] depends on the recursive call only through its runs *)
Lemma walk_body_same cf (w1 w2 : node -> M value) :
  (forall n, same (w1 n) (w2 n)) -> forall n, same (walk_body cf w1 n) (walk_body cf w2 n).
Proof.
  intros Hw. apply (rphi_walk_body_all cf _ _ _ same_logic same_pure_sites); intros; apply Hw.
Qed.

Lemma existsb_none {A} (l : list A) : existsb (fun _ => false) l = false.
Proof. induction l as [|a r IH]; [reflexivity | exact IH]. Qed.

Lemma walk_body_x_no_ext cf w n : c_msgs cf = None -> walk_body_x cf no_ext w n = walk_body cf w n.
Proof.
  intros Hm. destruct n; try reflexivity; cbn [walk_body_x].
  - destruct (_ || _ || _); reflexivity.
  - unfold print_uses_installed, is_installed_dir. cbn [no_ext ux_dir]. rewrite existsb_none. reflexivity.
  - unfold msg_translation. rewrite Hm. destruct (id =? 0); reflexivity.
Qed.

(* with nothing installed and no message bundle the extended walker is the walker of Model/Interp.v, on every node,
   fuel and state *)
Theorem walk_x_no_ext cf : c_msgs cf = None -> forall fuel n st, walk_x cf no_ext fuel n st = walk cf fuel n st.
Proof.
  intros Hm. induction fuel as [|f IH]; intros n st; [reflexivity|].
  cbn [walk_x walk]. rewrite (walk_body_x_no_ext cf _ n Hm).
  apply (walk_body_same cf (walk_x cf no_ext f) (walk cf f)). intros n' st'. apply IH.
Qed.

Lemma render_x_eq cf ux fuel name id data cl bl fid :
  render_x cf ux fuel name id data cl bl fid = render_with (fun t => walk_x cf ux fuel (t_node t)) cf name id data cl bl fid.
Proof. reflexivity. Qed.

Theorem render_x_no_ext cf fuel name id data cl bl fid :
  c_msgs cf = None ->
  render_x cf no_ext fuel name id data cl bl fid = render cf fuel name id data cl bl fid.
Proof.
  intros Hm. rewrite render_x_eq, render_eq. apply render_with_ext. intros t. apply (walk_x_no_ext cf Hm).
Qed.

(* (C) C08 with installed functions and directives *)

Theorem walk_x_no_shared_writes cf ux fuel n st r st' :
  pure_inv st -> walk_x cf ux fuel n st = (r, st') -> shared_writes st' = [].
Proof.
  intros Hi H.
  pose proof (inv_walk_x _ _ _ purity_conditions cf ux fuel n st r st' Hi H) as H1.
  destruct (classify r); [destruct H1 as [[Hs _] _]; exact Hs | destruct H1 as [Hs _]; exact Hs].
Qed.

Theorem render_x_no_shared_writes cf ux fuel name id data cl bl fid :
  rr_shared_writes (render_x cf ux fuel name id data cl bl fid) = [].
Proof. rewrite render_x_eq. apply render_with_no_shared_writes. intros t. apply walk_x_no_shared_writes. Qed.

(* the history machine of Model/History.v over the extended render *)
Section HistoryX.
Variable ux : user_ext.

Definition render_in_x (wd : world) (sh : shared) (rq : request) : render_result :=
  render_x (cfg_of wd sh rq) ux (rq_fuel rq) (rq_name rq) (rq_data rq) (heap_get (sh_heap sh) (rq_data rq))
           (rq_calls_left rq) (rq_bytes_left rq) (rq_first_id rq).

Definition step_x (wd : world) (sh : shared) (rq : request) : render_result * shared :=
  let r := render_in_x wd sh rq in (r, shared_after wd sh rq r).

Fixpoint run_history_x (wd : world) (sh : shared) (h : list request) : list render_result * shared :=
  match h with
  | [] => ([], sh)
  | rq :: rest =>
      let '(r, sh1) := step_x wd sh rq in
      let '(rs, sh2) := run_history_x wd sh1 rest in
      (r :: rs, sh2)
  end.

Lemma run_history_x_with wd sh h : run_history_x wd sh h = run_with wd (render_in_x wd) sh h.
Proof.
  revert sh. induction h as [|rq rest IH]; intros sh; [reflexivity|].
  cbn [run_history_x run_with]. unfold step_x. rewrite IH. reflexivity.
Qed.

Lemma render_in_x_clean wd sh rq : rr_shared_writes (render_in_x wd sh rq) = [].
Proof. apply render_x_no_shared_writes. Qed.

Theorem shared_preserved_x wd sh rq : repaired wd -> snd (step_x wd sh rq) = sh.
Proof. intros Hv. apply (shared_after_id wd (render_in_x wd) Hv (render_in_x_clean wd)). Qed.

Lemma run_history_x_shared wd sh h : repaired wd -> snd (run_history_x wd sh h) = sh.
Proof. intros Hv. rewrite run_history_x_with, (run_with_eq wd _ Hv (render_in_x_clean wd)). reflexivity. Qed.

Lemma run_history_x_app wd sh h1 h2 :
  fst (run_history_x wd sh (h1 ++ h2)) =
  fst (run_history_x wd sh h1) ++ fst (run_history_x wd (snd (run_history_x wd sh h1)) h2).
Proof. rewrite !run_history_x_with. apply run_with_app. Qed.

Theorem history_pointwise_x wd sh h : repaired wd -> fst (run_history_x wd sh h) = map (render_in_x wd sh) h.
Proof. intros Hv. rewrite run_history_x_with, (run_with_eq wd _ Hv (render_in_x_clean wd)). reflexivity. Qed.

Theorem history_independent_x_l wd sh h rq :
  repaired wd ->
  fst (run_history_x wd sh (h ++ [rq])) = fst (run_history_x wd sh h) ++ [render_in_x wd sh rq].
Proof. intros Hv. rewrite !(history_pointwise_x wd sh _ Hv). apply map_app. Qed.
End HistoryX.

(* non-vacuity: an installed function and an installed (obligatory) directive at work *)
Definition ux_name_twice := Eval vm_compute in b "twice".
Definition ux_name_bang := Eval vm_compute in b "bang".
Definition ux_wit : user_ext :=
  {| ux_func := fun name => if bstr_eqb name ux_name_twice
                            then Some ([1], fun vs => match vs with [VStr s] => Ok (FVal (VStr (s ++ s))) | _ => Err e_type end)
                            else None;
     ux_dir := fun name => if bstr_eqb name ux_name_bang
                           then Some ([0], (false, fun v _ => match v with VStr s => Ok (VStr (s ++ [33])) | _ => Ok v end))
                           else None |}.
Definition ux_reg : registry :=
  {| r_templates := [{| t_name := wit_name;
                        t_node := NTemplate 0 wit_name (NList 0 [NPrint 4 (NFunc 5 ux_name_twice [NDataRef 6 wit_x []]) []]) 0 false;
                        t_ns_name := b "ns"; t_ns_autoescape := 0; t_params := [(wit_x, false)]; t_file := b "f.soy" |}];
     r_sources := [(wit_name, b "{namespace ns}{template .t}{twice($x)}{/template}")];
     r_files := [(wit_name, b "f.soy")] |}.
Definition ux_shared : shared := {| sh_reg := ux_reg; sh_heap := [(7, [(wit_x, VStr (b "a<"))])] |}.
Definition ux_world : world :=
  {| w_variant := Repaired; w_oblig := [ux_name_bang]; w_msgs := None; w_executions := fun _ _ => 1%nat; w_clobber := fun _ m => m |}.

Lemma ux_witness :
  map (fun r => (is_ok (rr_outcome r), concat_b (rr_writes r))) (fst (run_history_x ux_wit ux_world ux_shared [wit_rq; wit_rq]))
  = [(true, b "a&lt;a&lt;!"); (true, b "a&lt;a&lt;!")].
Proof. vm_compute. reflexivity. Qed.

(* without the installation the same template fails (unknown function): the extension is what makes it render *)
Lemma ux_witness_base :
  is_ok (rr_outcome (render_in ux_world ux_shared wit_rq)) = false.
Proof. vm_compute. reflexivity. Qed.

(* a translated plural message: {msg}{plural $x}{case 1}one{default}{$x} items{/plural}{/msg} through a bundle with two
   forms ("eins" / "{N_2} Stueck"), PluralCase(1) = 0, otherwise 1 *)
Definition tr_n1 := Eval vm_compute in b "N_1".
Definition tr_n2 := Eval vm_compute in b "N_2".
Definition tr_msg : node :=
  NMsg 4 77 [] [] [NMsgPlural 5 tr_n1 (NDataRef 6 wit_x [])
                     [NMsgPluralCase 7 1 [NRawText 8 (b "one")]]
                     [NMsgPlaceholder 9 tr_n2 (NPrint 10 (NDataRef 11 wit_x []) []); NRawText 12 (b " items")]].
Definition tr_bundle : msg_bundle :=
  {| mb_msgs := [(77, [NMsgPlural 0 tr_n1 (NNull 0)
                         [NMsgPluralCase 0 0 [NRawText 0 (b "eins")];
                          NMsgPluralCase 0 0 [NIdent 0 tr_n2; NRawText 0 (b " Stueck")]] []])];
     mb_plural := [(1%Z, 0)]; mb_plural_default := 1 |}.
Definition tr_cfg (msgs : option msg_bundle) : cfg :=
  {| c_reg := {| r_templates := [{| t_name := wit_name; t_node := NTemplate 0 wit_name (NList 0 [tr_msg]) 0 false;
                                    t_ns_name := b "ns"; t_ns_autoescape := 0; t_params := [(wit_x, false)]; t_file := b "f.soy" |}];
                 r_sources := [(wit_name, b "{namespace ns}{template .t}{msg desc=""}{plural $x}{case 1}one{default}{$x} items{/plural}{/msg}{/template}")];
                 r_files := [(wit_name, b "f.soy")] |};
     c_ij := None; c_oblig := []; c_msgs := msgs |}.
Definition tr_run msgs (x : Z) cl := render_x (tr_cfg msgs) no_ext 10 wit_name 7 [(wit_x, VInt x)] cl None 100.

Lemma tr_witness :
  (rr_outcome (tr_run (Some tr_bundle) 3 None), rr_writes (tr_run (Some tr_bundle) 3 None)) = (Ok tt, [b "3"; b " Stueck"]) /\
  (rr_outcome (tr_run (Some tr_bundle) 1 None), rr_writes (tr_run (Some tr_bundle) 1 None)) = (Ok tt, [b "eins"]) /\
  (rr_outcome (tr_run None 3 None), rr_writes (tr_run None 3 None)) = (Ok tt, [b "3"; b " items"]) /\
  (* the text after the last placeholder of the selected form, refused: the render returns the error *)
  (rr_outcome (tr_run (Some tr_bundle) 3 (Some 1%nat)), rr_writes (tr_run (Some tr_bundle) 3 (Some 1%nat))) = (Err e_write, [b "3"]).
Proof. vm_compute. repeat split; reflexivity. Qed.

(* (E) which runs of Renderer.Execute the walker of Model/Interp.v covers.

   [Interp.walk] never reads [c_msgs]: on a {msg} it always takes the source text (walkMsgBody).  So every theorem
   stated about [Interp.walk cf] / [Interp.render cf] (C02, C06, C19 ...) is, for EVERY [cf], a statement about the run
   without a bundle ([walk_ignores_bundle]); and that run is what exec.go does (a) without Renderer.WithMessages and
   (b) with a bundle that has no translation of any message met ([walk_x_untranslated]: evalMsg falls back to the
   source text).  A run that goes THROUGH a translation (evalMsgParts) is described by [walk_x] only: the properties
   proved over [walk_x] (C08, C12: [inv_walk_x], [walk_logic_x]) cover it, the others do not. *)
Definition cfg_no_msgs (cf : cfg) : cfg :=
  {| c_reg := c_reg cf; c_ij := c_ij cf; c_oblig := c_oblig cf; c_msgs := None |}.

Lemma walk_body_no_msgs cf w n : walk_body cf w n = walk_body (cfg_no_msgs cf) w n.
Proof. destruct cf. reflexivity. Qed.

Theorem walk_ignores_bundle cf : forall fuel n st, walk cf fuel n st = walk (cfg_no_msgs cf) fuel n st.
Proof.
  induction fuel as [|f IH]; intros n st; [reflexivity|].
  cbn [walk]. rewrite (walk_body_no_msgs cf).
  apply (walk_body_same (cfg_no_msgs cf) (walk cf f) (walk (cfg_no_msgs cf) f)). intros n' st'. apply IH.
Qed.

Theorem render_ignores_bundle cf fuel name id data cl bl fid :
  render cf fuel name id data cl bl fid = render (cfg_no_msgs cf) fuel name id data cl bl fid.
Proof.
  unfold render. cbn [cfg_no_msgs c_reg]. destruct (find_template _ name) as [t|]; [|reflexivity].
  rewrite (walk_ignores_bundle cf). reflexivity.
Qed.

(* a bundle without a translation of any message: evalMsg's fallback, the walker of Model/Interp.v *)
Definition untranslated (cf : cfg) : Prop := forall id, msg_translation cf id = None.

Lemma untranslated_none cf : c_msgs cf = None -> untranslated cf.
Proof. intros H id. unfold msg_translation. rewrite H. destruct (id =? 0); reflexivity. Qed.
Lemma untranslated_empty cf mb : c_msgs cf = Some mb -> mb_msgs mb = [] -> untranslated cf.
Proof. intros H He id. unfold msg_translation. rewrite H, He. destruct (id =? 0); reflexivity. Qed.

Lemma walk_body_x_untranslated cf w n : untranslated cf -> walk_body_x cf no_ext w n = walk_body cf w n.
Proof.
  intros Hm. destruct n; try reflexivity; cbn [walk_body_x].
  - destruct (_ || _ || _); reflexivity.
  - unfold print_uses_installed, is_installed_dir. cbn [no_ext ux_dir]. rewrite existsb_none. reflexivity.
  - rewrite (Hm id). reflexivity.
Qed.

Theorem walk_x_untranslated cf : untranslated cf -> forall fuel n st, walk_x cf no_ext fuel n st = walk cf fuel n st.
Proof.
  intros Hm. induction fuel as [|f IH]; intros n st; [reflexivity|].
  cbn [walk_x walk]. rewrite (walk_body_x_untranslated cf _ n Hm).
  apply (walk_body_same cf (walk_x cf no_ext f) (walk cf f)). intros n' st'. apply IH.
Qed.

Theorem render_x_untranslated cf fuel name id data cl bl fid :
  untranslated cf ->
  render_x cf no_ext fuel name id data cl bl fid = render cf fuel name id data cl bl fid.
Proof.
  intros Hm. rewrite render_x_eq, render_eq. apply render_with_ext. intros t. apply (walk_x_untranslated cf Hm).
Qed.

(* and the walker of Model/Interp.v is NOT the run through a translation: a bundle whose translation of message 77
   is the text "v" -- [walk_x] writes it, [walk] writes the source text *)
Example translated_run_not_covered :
  let cf := {| c_reg := empty_registry; c_ij := None; c_oblig := [];
               c_msgs := Some {| mb_msgs := [(77, [NRawText 0 [118]])]; mb_plural := []; mb_plural_default := 0 |} |} in
  let n := NMsg 10 77 [] [] [NRawText 11 [120]] in
  let st := init_state [] 1 [] None None 2 in
  out (snd (walk_x cf no_ext 3 n st)) = [[118]] /\ out (snd (walk cf 3 n st)) = [[120]].
Proof. vm_compute. split; reflexivity. Qed.

(* the structural tie of the extended walker (probes of [walk_body_x] against the event lists of exec.go) is an
   obligation of every property that imports this file (required last, as in Proofs/InterpLogic.v) *)
From Soy Require Import Proofs.WalkTieProbesX.
