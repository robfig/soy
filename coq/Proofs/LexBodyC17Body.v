(* C17, scanner half for template bodies: the covered class and the composition over a body.
   [lb17_okc] / [lb17_okb]: the commands / bodies covered: raw text without comment opener ([lb17_one_piece]), print commands, {debugger}, {log},
   {let} (both forms), {if}/{elseif}/{else}, {for}/{ifempty} (list expression whose text does not start with "-"), {switch} with
   {case v,...} (no default case), {css}, {call} with data="all" / data="e" / both parameter forms / none.
   A tag "{kw ...}" is the keyword step followed by ONE fragment in the sense of Proofs/LexExpr.v [lexes] ([lb17_cmd_tag]);
   the fragments are composed with the combinators of Proofs/LexPrint.v.
   [lb17_ok_runs]: the composition, by induction on the derivation of the class.
   [lb17_lex_body]: lex(String(body)) sends the items of [body_toks] (types and texts) followed by EOF; [lb17_lex_template_body]: the same with {/template} behind the body. *)
From Soy Require Import Model.Bytes Model.Utf8 Model.Num Model.Values Model.Outcome Model.Ast Model.Token Model.NumLit Model.Quote
  Model.AstPrint Model.AstPrintCmd Generated.Tables Model.Lexer Spec.ExprSyntax Spec.CmdSyntax Spec.Text Spec.TextBody
  Proofs.Utf8Proofs Proofs.ExprParserProofs Proofs.LexerPrim Proofs.LexerStates Proofs.LexerProofs
  Proofs.LexTokens Proofs.LexNumbers Proofs.LexStrings Proofs.LexExpr Proofs.LexPrint Proofs.LexPrintMain Proofs.LexPrintTop
  Proofs.LexBodyText Proofs.LexBodyTop Proofs.LexBodySeg Proofs.LexBodyCmd Proofs.LexPrintCmd.
From Soy Require Import Proofs.LexBodyC17 Proofs.LexBodyC17Cmds.
From Coq Require Import ZifyBool Lia.
Open Scope Z_scope.

(* The list expression of {for $x in e} follows the identifier item "in", which ends a term: a "-" there would be
   lexed as the binary minus (lexNegative looks at the last item sent), so [lex_print] (stated for a position where
   an operand may start) does not apply.  [lb17_anylast e]: the printed text of e lexes to its items whatever the
   last item was; proved below for a plain variable ($xs) and for every expression whose text does not start with "-". *)
Definition lb17_anylast (e : node) : Prop :=
  forall (uni_letter uni_digit : Z -> bool),
  (forall c, (c < 128)%N -> uni_letter (Z.of_N c) = ((65 <=? c) && (c <=? 90) || (97 <=? c) && (c <=? 122))%N) ->
  (forall c, (c < 128)%N -> uni_digit (Z.of_N c) = digit_b c) ->
  uni_letter (-1) = false -> uni_digit (-1) = false ->
  forall inp se, print_node e = Some se -> lexes uni_letter uni_digit inp 0 anyty fexp se (toks e) term.

Lemma lb17_anylast_var p key : alnums key -> lb17_anylast (NDataRef p key []).
Proof.
  intros Hk uni_letter uni_digit Hla Hda Hle Hde inp se Hp. cbn [print_node map opt_all obind concat_b] in Hp. injection Hp as <-.
  rewrite app_nil_r. change ([36%N] ++ key) with (36%N :: key).
  change (toks (NDataRef p key [])) with [(itemDollarIdent, 36%N :: key)].
  eapply lexes_weaken; [apply (lexes_dollar uni_letter uni_digit Hla Hda Hle Hde inp 0 key Hk)|auto|apply fexp_stops|].
  intros ty <-. reflexivity.
Qed.

(* every list expression whose printed text does not start with "-" (Proofs/LexPrintMain.v lex_print_any).  A text that does
   start with "-" is outside for a reason of the code: {for $x in (-$a)} prints {for $x in -$a}, where lexNegative reads
   the "-" behind the identifier item "in" as the binary minus and parseFor fails *)
Lemma lb17_anylast_no_minus e : wf_expr e -> lex_ok e -> (forall se, print_node e = Some se -> no_minus se) -> lb17_anylast e.
Proof.
  intros Hwf Hlo Hm ul ud Hla Hda Hle Hde inp se Hp.
  exact (lex_print_any ul ud Hla Hda Hle Hde inp 0 e Hwf Hlo se Hp (Hm se Hp)).
Qed.

(* ... which is what wf_body demands of the list expression of a {for} *)
Lemma lb17_anylast_wf e : wf_expr e -> lex_ok e -> c17_no_lead_minus e -> lb17_anylast e.
Proof.
  intros Hwf Hlo Hm. apply lb17_anylast_no_minus; [exact Hwf|exact Hlo|].
  intros se Hp. unfold c17_no_lead_minus, printed in Hm. rewrite Hp in Hm. exact Hm.
Qed.

(* the text of a {css} command: ASCII without "}" (lexCss reads runes up to the first "}") *)
Definition lb17_css_ok (txt : bstr) : Prop := Forall (fun c => (c < 128)%N /\ c <> 125%N) txt.

(* the data attribute of a {call}: data="all", or data="e" with e printed in printable ASCII without quote and backslash *)
Definition lb17_data_ok (alldata : bool) (data : option node) : Prop :=
  match data with
  | None => True
  | Some d => alldata = false /\ wf_expr d /\ CmdSyntax.plain (printed d) /\ print_node d <> None
  end.
Definition lb17_call_sd (alldata : bool) (data : option node) : bstr :=
  if alldata then c_data_all else match data with Some d => c_data ++ printed d ++ [34%N] | None => [] end.
Definition lb17_call_attr (alldata : bool) (data : option node) : list tok :=
  if alldata then attr_toks v_data (dq v_all) else match data with Some d => attr_toks v_data (dq (printed d)) | None => [] end.

Inductive lb17_okc : node -> Prop :=
| lb17_ok_print p arg dirs : wf_print (NPrint p arg dirs) -> lex_ok_print (NPrint p arg dirs) -> lb17_okc (NPrint p arg dirs)
| lb17_ok_debugger p : lb17_okc (NDebugger p)
| lb17_ok_log p q ns : lb17_okb ns -> lb17_okc (NLog p (NList q ns))
| lb17_ok_letv p name e : alnums name -> wf_expr e -> lex_ok e -> lb17_okc (NLetValue p name e)
| lb17_ok_letc p name q ns : alnums name -> lb17_okb ns -> lb17_okc (NLetContent p name (NList q ns))
| lb17_ok_if p conds : lb17_okconds true conds -> lb17_okc (NIf p conds)
| lb17_ok_for p var lst q ns : alnums var -> wf_expr lst -> lex_ok lst -> c17_no_lead_minus lst -> lb17_okb ns ->
    lb17_okc (NFor p var lst (NList q ns) None)
| lb17_ok_for_ie p var lst q ns q2 ns2 : alnums var -> wf_expr lst -> lex_ok lst -> c17_no_lead_minus lst -> lb17_okb ns -> lb17_okb ns2 ->
    lb17_okc (NFor p var lst (NList q ns) (Some (NList q2 ns2)))
| lb17_ok_switch p v cases : wf_expr v -> lex_ok v -> lb17_okcases cases -> lb17_okc (NSwitch p v cases)
| lb17_ok_css p suffix : lb17_css_ok suffix -> lb17_okc (NCss p None suffix)
| lb17_ok_css_e p x suffix : wf_expr x -> lb17_css_ok (css_text (Some x) suffix) -> lb17_okc (NCss p (Some x) suffix)
| lb17_ok_call p name alldata data params : dotted_ok name -> lb17_data_ok alldata data -> lb17_okparams params ->
    lb17_okc (NCall p name alldata data params)
(* the parameters of a {call}: both forms the printer writes, {param k}..{/param} and {param k: e/} *)
with lb17_okparams : list node -> Prop :=
| lb17_ok_params_nil : lb17_okparams []
| lb17_ok_params_cons q key w ns r : plain_word key -> lb17_okb ns -> lb17_okparams r ->
    lb17_okparams (NParamContent q key (NList w ns) :: r)
| lb17_ok_params_val q key v r : plain_word key -> wf_expr v -> lex_ok v -> lb17_okparams r ->
    lb17_okparams (NParamValue q key v :: r)
(* the cases of a {switch}: each with values (String() prints the default case as "{case }": not covered) *)
with lb17_okcases : list node -> Prop :=
| lb17_ok_cases_nil : lb17_okcases []
| lb17_ok_cases_cons q vals w ns r : vals <> [] -> allP wf_expr vals -> allP lex_ok vals -> lb17_okb ns -> lb17_okcases r ->
    lb17_okcases (NSwitchCase q vals (NList w ns) :: r)
(* the conditions of an {if}: [first] = none read yet; {else} is last and not first *)
with lb17_okconds : bool -> list node -> Prop :=
| lb17_ok_conds_nil : lb17_okconds false []
| lb17_ok_conds_cond first q c w ns r : wf_expr c -> lex_ok c -> lb17_okb ns -> lb17_okconds false r ->
    lb17_okconds first (NIfCond q (Some c) (NList w ns) :: r)
| lb17_ok_conds_else q w ns : lb17_okb ns -> lb17_okconds false [NIfCond q None (NList w ns)]
with lb17_okb : list node -> Prop :=
| lb17_ok_nil : lb17_okb []
| lb17_ok_text p t r : LexBodyText.plain t -> lb17_one_piece t -> droppable t = false ->
    lb17_okb r -> match r with NRawText _ _ :: _ => False | _ => True end -> lb17_okb (NRawText p t :: r)
| lb17_ok_cmd c r : lb17_okc c -> lb17_okb r -> lb17_okb (c :: r).

Scheme lb17_okc_mut := Minimality for lb17_okc Sort Prop
  with lb17_okparams_mut := Minimality for lb17_okparams Sort Prop
  with lb17_okcases_mut := Minimality for lb17_okcases Sort Prop
  with lb17_okconds_mut := Minimality for lb17_okconds Sort Prop
  with lb17_okb_mut := Minimality for lb17_okb Sort Prop.
Combined Scheme lb17_ok_mutind from lb17_okc_mut, lb17_okparams_mut, lb17_okcases_mut, lb17_okconds_mut, lb17_okb_mut.

Definition lb17_hd_cmd (ns : list node) : Prop := match ns with [] => False | NRawText _ _ :: _ => False | _ => True end.

(* the printer on the forms above *)
Lemma lb17_print_list q ns : print_tree (NList q ns) = omap concat_b (opt_all (map print_tree ns)).
Proof. reflexivity. Qed.
Lemma lb17_print_log p x : print_tree (NLog p x) = obind (print_tree x) (fun s => Some (c_log ++ s ++ c_log_end)).
Proof. reflexivity. Qed.
Lemma lb17_print_letv p name e :
  print_tree (NLetValue p name e) = obind (print_tree e) (fun s => Some (c_let ++ name ++ [58; 32]%N ++ s ++ c_let_v_end)).
Proof. reflexivity. Qed.
Lemma lb17_print_letc p name x :
  print_tree (NLetContent p name x) = obind (print_tree x) (fun s => Some (c_let ++ name ++ [125%N] ++ s ++ c_let_end)).
Proof. reflexivity. Qed.
(* IfNode.String and the Spec's items of an {if}, with their local recursions named *)
Fixpoint lb17_if_print (first : bool) (l : list node) : option bstr :=
  match l with
  | [] => Some []
  | c :: r =>
      let has_cond := match c with NIfCond _ (Some _) _ => true | _ => false end in
      obind (print_tree c) (fun s =>
      obind (lb17_if_print false r) (fun sr => Some (if_prefix first has_cond ++ s ++ sr)))
  end.
Lemma lb17_print_if p conds : print_tree (NIf p conds) = obind (lb17_if_print true conds) (fun s => Some (s ++ c_if_end)).
Proof. reflexivity. Qed.
Lemma lb17_print_ifcond q c w ns :
  print_tree (NIfCond q (Some c) (NList w ns)) =
  obind (omap (fun s => s ++ [125%N]) (print_tree c)) (fun sc => obind (omap concat_b (opt_all (map print_tree ns))) (fun sb => Some (sc ++ sb))).
Proof. reflexivity. Qed.
Lemma lb17_print_ifelse q w ns :
  print_tree (NIfCond q None (NList w ns)) = obind (omap concat_b (opt_all (map print_tree ns))) (fun sb => Some ([] ++ sb)).
Proof. reflexivity. Qed.

Definition lb17_if_toks (p : N) : bool -> list node -> list tok :=
  let body (x : node) : list tok := match x with NList _ ns => concat (map cmd_toks ns) | _ => [] end in
  fix go (first : bool) (l : list node) : list tok :=
  match l with
  | [] => []
  | NIfCond _ (Some c) x :: r =>
      [T_ldelim; kw (if first then pit_If else pit_Elseif) (if first then p else 0%N)] ++ tokens_of c ++ [T_rdelim] ++ body x ++ go false r
  | NIfCond _ None x :: r => [T_ldelim; kw pit_Else 0; T_rdelim] ++ body x ++ go false r
  | _ :: r => go false r
  end.
Lemma lb17_toks_if p conds : cmd_toks (NIf p conds) = lb17_if_toks p true conds ++ CmdSyntax.close_tag pit_IfEnd.
Proof. reflexivity. Qed.

Lemma lb17_print_for p var lst x ie :
  print_tree (NFor p var lst x ie) =
  obind (print_tree lst) (fun sl => obind (print_tree x) (fun sb =>
  obind (match ie with Some y => omap (fun s => c_ifempty ++ s) (print_tree y) | None => Some [] end) (fun se =>
    Some (c_for ++ var ++ c_in ++ sl ++ [125%N] ++ sb ++ se ++ c_for_end)))).
Proof. reflexivity. Qed.

Lemma lb17_print_switch p v cases :
  print_tree (NSwitch p v cases) =
  obind (print_tree v) (fun sv => obind (omap concat_b (opt_all (map print_tree cases))) (fun sc =>
    Some (c_switch ++ sv ++ [125%N] ++ sc ++ c_switch_end))).
Proof. reflexivity. Qed.
Lemma lb17_print_case q vals w ns :
  print_tree (NSwitchCase q vals (NList w ns)) =
  obind (opt_all (map print_tree vals)) (fun l => obind (omap concat_b (opt_all (map print_tree ns))) (fun sb =>
    Some (c_case ++ join s_comma l ++ [125%N] ++ sb))).
Proof. reflexivity. Qed.
Definition lb17_switch_toks : list node -> list tok :=
  let body (x : node) : list tok := match x with NList _ ns => concat (map cmd_toks ns) | _ => [] end in
  fix go (l : list node) : list tok :=
  match l with
  | [] => []
  | NSwitchCase q vals x :: r =>
      (match vals with
       | [] => [T_ldelim; kw pit_Default q; T_rdelim]
       | _ => [T_ldelim; kw pit_Case q] ++ sep_join [T_comma] (map tokens_of vals) ++ [T_rdelim]
       end) ++ body x ++ go r
  | _ :: r => go r
  end.
Lemma lb17_switch_toks_cons q v0 vals w ns r :
  lb17_switch_toks (NSwitchCase q (v0 :: vals) (NList w ns) :: r) =
  ([T_ldelim; kw pit_Case q] ++ sep_join [T_comma] (map tokens_of (v0 :: vals)) ++ [T_rdelim]) ++
  concat (map cmd_toks ns) ++ lb17_switch_toks r.
Proof. reflexivity. Qed.

Lemma lb17_print_css_e p x suffix :
  print_tree (NCss p (Some x) suffix) = obind (print_tree x) (fun s => Some (c_css ++ s ++ [44; 32]%N ++ suffix ++ [125%N])).
Proof. reflexivity. Qed.

Lemma lb17_print_expr e : wf_expr e -> print_tree e = print_node e.
Proof. destruct e; cbn [wf_expr]; intros H; try contradiction; reflexivity. Qed.

Lemma lb17_print_call p name alldata data params : lb17_data_ok alldata data ->
  print_tree (NCall p name alldata data params) =
    let head := c_call ++ name ++ lb17_call_sd alldata data in
    match params with
    | [] => Some (head ++ c_call_self)
    | _ => obind (omap concat_b (opt_all (map print_tree params))) (fun sp => Some (head ++ [125%N] ++ sp ++ c_call_end))
    end.
Proof.
  intros Hd. unfold lb17_call_sd. destruct alldata; [reflexivity|]. destruct data as [d|]; [|reflexivity].
  destruct Hd as (_ & Hwf & _ & Hpn).
  change (print_tree (NCall p name false (Some d) params))
    with (obind (omap (fun s0 => c_data ++ s0 ++ [34%N]) (print_tree d)) (fun sd =>
            let head := c_call ++ name ++ sd in
            match params with
            | [] => Some (head ++ c_call_self)
            | _ => obind (omap concat_b (opt_all (map print_tree params))) (fun sp => Some (head ++ [125%N] ++ sp ++ c_call_end))
            end)).
  rewrite (lb17_print_expr d Hwf). unfold printed. destruct (print_node d); [reflexivity|congruence].
Qed.
Lemma lb17_print_param q key w ns :
  print_tree (NParamContent q key (NList w ns)) =
  obind (omap concat_b (opt_all (map print_tree ns))) (fun s => Some (c_cparam ++ key ++ [125%N] ++ s ++ c_cparam_end)).
Proof. reflexivity. Qed.
Lemma lb17_print_paramv q key v :
  print_tree (NParamValue q key v) = obind (print_tree v) (fun s => Some (c_cparam ++ key ++ [58; 32]%N ++ s ++ c_call_self)).
Proof. reflexivity. Qed.
Definition lb17_call_toks : list node -> list tok :=
  let body (x : node) : list tok := match x with NList _ ns => concat (map cmd_toks ns) | _ => [] end in
  fix go (l : list node) : list tok :=
  match l with
  | [] => []
  | NParamValue q key v :: r =>
      [tk pit_LeftDelim q [123%N]; kw pit_Param 0; tk pit_Ident 0 key; T_colon] ++ tokens_of v ++ [T_rdelim_end] ++ go r
  | NParamContent q key x :: r =>
      [tk pit_LeftDelim q [123%N]; kw pit_Param 0; tk pit_Ident 0 key; T_rdelim] ++ body x ++ CmdSyntax.close_tag pit_ParamEnd ++ go r
  | _ :: r => go r
  end.
Lemma lb17_call_toks_cons q key w ns r :
  lb17_call_toks (NParamContent q key (NList w ns) :: r) =
  ([tk pit_LeftDelim q [123%N]; kw pit_Param 0; tk pit_Ident 0 key; T_rdelim] ++ concat (map cmd_toks ns) ++ CmdSyntax.close_tag pit_ParamEnd) ++
  lb17_call_toks r.
Proof. unfold lb17_call_toks. rewrite <- !app_assoc. reflexivity. Qed.
Lemma lb17_call_toks_cons_val q key v r :
  lb17_call_toks (NParamValue q key v :: r) =
  ([tk pit_LeftDelim q [123%N]; kw pit_Param 0; tk pit_Ident 0 key; T_colon] ++ tokens_of v ++ [T_rdelim_end]) ++ lb17_call_toks r.
Proof. unfold lb17_call_toks. rewrite <- !app_assoc. reflexivity. Qed.


Lemma lb17_print_exprs vals : allP wf_expr vals -> map print_tree vals = map print_node vals.
Proof.
  induction vals as [|v r IH]; intros H; [reflexivity|]. destruct H as [H1 H2]. cbn [map].
  rewrite (lb17_print_expr v H1), (IH H2). reflexivity.
Qed.

(* the text of the cases of a {switch} is empty or begins a tag *)
Lemma lb17_cases_head r tr : lb17_okcases r -> opt_all (map print_tree r) = Some tr -> concat_b tr = [] \/ exists r0, concat_b tr = 123%N :: r0.
Proof.
  intros Hok Hp. inversion Hok as [|q vals w ns r' Hne Hwf Hlo Hb Hr]; subst.
  - injection Hp as <-. left; reflexivity.
  - right. cbn [map opt_all] in Hp. rewrite lb17_print_case in Hp.
    destruct (opt_all (map print_tree vals)); cbn [obind] in Hp; [|discriminate].
    destruct (opt_all (map print_tree ns)); cbn [omap obind] in Hp; [|discriminate].
    destruct (opt_all (map print_tree r')); [|discriminate]. injection Hp as <-. eexists; reflexivity.
Qed.

(* a covered command prints a tag *)
Lemma lb17_okc_head c txt : lb17_okc c -> print_tree c = Some txt -> exists r, txt = 123%N :: r.
Proof.
  intros Hok Hp. destruct Hok as [p arg dirs _ _|p|p q ns _|p name e _ Hwf _|p name q ns _ _|p conds Hconds
                                  |p var lst q ns _ _ _ _ _|p var lst q ns q2 ns2 _ _ _ _ _ _|p v cases _ _ _
                                  |p suffix _|p x suffix _ _|p name alldata data params _ Hdata _].
  - change (print_tree (NPrint p arg dirs)) with (print_node (NPrint p arg dirs)) in Hp. cbn [print_node] in Hp.
    destruct (print_node arg); cbn [obind] in Hp; [|discriminate]. destruct (opt_all _); cbn [obind] in Hp; [|discriminate].
    injection Hp as <-. eexists; reflexivity.
  - injection Hp as <-. eexists; reflexivity.
  - rewrite lb17_print_log in Hp. destruct (print_tree _); cbn [obind] in Hp; [|discriminate]. injection Hp as <-. eexists; reflexivity.
  - rewrite lb17_print_letv in Hp. destruct (print_tree _); cbn [obind] in Hp; [|discriminate]. injection Hp as <-. eexists; reflexivity.
  - rewrite lb17_print_letc in Hp. destruct (print_tree _); cbn [obind] in Hp; [|discriminate]. injection Hp as <-. eexists; reflexivity.
  - rewrite lb17_print_if in Hp. inversion Hconds as [|first q c w ns r Hwf Hlo Hb Hr|]; subst.
    cbn [lb17_if_print] in Hp. destruct (print_tree (NIfCond q (Some c) (NList w ns))); cbn [obind] in Hp; [|discriminate].
    destruct (lb17_if_print false r); cbn [obind] in Hp; [|discriminate]. injection Hp as <-. eexists; reflexivity.
  - rewrite lb17_print_for in Hp. destruct (print_tree lst); cbn [obind] in Hp; [|discriminate].
    destruct (print_tree (NList q ns)); cbn [obind] in Hp; [|discriminate]. injection Hp as <-. eexists; reflexivity.
  - rewrite lb17_print_for in Hp. destruct (print_tree lst); cbn [obind] in Hp; [|discriminate].
    destruct (print_tree (NList q ns)); cbn [obind] in Hp; [|discriminate].
    destruct (print_tree (NList q2 ns2)); cbn [omap obind] in Hp; [|discriminate]. injection Hp as <-. eexists; reflexivity.
  - rewrite lb17_print_switch in Hp. destruct (print_tree v); cbn [obind] in Hp; [|discriminate].
    destruct (opt_all (map print_tree cases)); cbn [omap obind] in Hp; [|discriminate]. injection Hp as <-. eexists; reflexivity.
  - injection Hp as <-. eexists; reflexivity.
  - rewrite lb17_print_css_e in Hp. destruct (print_tree x); cbn [obind] in Hp; [|discriminate]. injection Hp as <-. eexists; reflexivity.
  - rewrite (lb17_print_call _ _ _ _ _ Hdata) in Hp. cbv zeta in Hp. destruct params as [|p0 ps].
    + injection Hp as <-. eexists; reflexivity.
    + destruct (opt_all (map print_tree (p0 :: ps))); cbn [omap obind] in Hp; [|discriminate]. injection Hp as <-. eexists; reflexivity.
Qed.


(* the text of the later conditions is empty or begins a tag *)
Lemma lb17_if_print_head r sr : lb17_okconds false r -> lb17_if_print false r = Some sr -> sr = [] \/ exists r0, sr = 123%N :: r0.
Proof.
  intros Hok Hp. inversion Hok as [|first q c w ns r' Hwf Hlo Hb Hr|q w ns Hb]; subst.
  - injection Hp as <-. left; reflexivity.
  - right. cbn [lb17_if_print] in Hp. destruct (print_tree (NIfCond q (Some c) (NList w ns))); cbn [obind] in Hp; [|discriminate].
    destruct (lb17_if_print false r'); cbn [obind] in Hp; [|discriminate]. injection Hp as <-. eexists; reflexivity.
  - right. cbn [lb17_if_print] in Hp. destruct (print_tree (NIfCond q None (NList w ns))); cbn [obind] in Hp; [|discriminate].
    injection Hp as <-. eexists; reflexivity.
Qed.

(* the two sides are the same list, bracketed differently *)
Ltac lb17_assoc := cbn [concat_b]; repeat (rewrite <- app_assoc || rewrite <- app_comm_cons); reflexivity.

(* membership in one of the two keyword tables *)
Ltac lb17_in := unfold lb17_open_kws, lb17_close_kws; cbn [In]; repeat (first [left; reflexivity | right]).

Section Body.
Variable uni_letter uni_digit : Z -> bool.
Hypothesis letter_ascii : forall c, (c < 128)%N -> uni_letter (Z.of_N c) = ((65 <=? c) && (c <=? 90) || (97 <=? c) && (c <=? 122))%N.
Hypothesis digit_ascii : forall c, (c < 128)%N -> uni_digit (Z.of_N c) = digit_b c.
Hypothesis letter_eof : uni_letter (-1) = false.
Hypothesis digit_eof : uni_digit (-1) = false.
Variable inp : bstr.
Notation L := (lexes uni_letter uni_digit inp 0).
Notation W lem := (lem uni_letter uni_digit letter_ascii digit_ascii letter_eof digit_eof inp).
Notation steps := (steps uni_letter uni_digit inp 0).
Notation span := (span inp).
Notation go := (lb17_go uni_letter uni_digit inp).
Notation fin := (lb17_fin uni_letter uni_digit inp).

(* a command: from lexLeftDelim at its "{" to the lexText behind its last "}" *)
Definition lb17_cmd_runs (txt : bstr) (ts : list tok) : Prop :=
  forall l s, span l [] (txt ++ s) -> exists l', go LLeftDelim l LText l' ts /\ span l' [] s /\ l_dd l' = false.
(* a body: from lexText at its first byte to the tag behind it, or to the end of the input *)
Definition lb17_body_runs (txt : bstr) (ts : list tok) : Prop :=
  forall l tl, span l [] (txt ++ tl) -> l_dd l = false -> tag_or_end tl -> fin tl ts LText l.

Lemma lb17_runs_eq t1 ts1 t2 ts2 : lb17_cmd_runs t1 ts1 -> t1 = t2 -> ts1 = ts2 -> lb17_cmd_runs t2 ts2.
Proof. intros H <- <-. exact H. Qed.

(* "{kw}" *)
Lemma lb17_cmd_simple name t p : In (name, t) lb17_open_kws -> lb17_cmd_runs ([123%N] ++ name ++ [125%N]) [T_ldelim; kw t p; T_rdelim].
Proof.
  intros Hin l s Hs. rewrite <- !app_assoc in Hs.
  destruct (W lb17_go_open l name t 0%N p (125%N :: s) Hin Hs (conj eq_refl eq_refl)) as (l1 & G1 & S1 & D1 & _).
  destruct (W lb17_go_rdelim l1 s S1 D1) as (l2 & G2 & S2 & D2).
  exists l2. split; [exact (lb17_go_trans G1 G2)|auto].
Qed.

(* "{kw" sp inner "}", or "/}" in place of "}", where inner is a fragment inside the tag *)
Lemma lb17_cmd_tag name t q p (F : bstr -> Prop) inner its (Q : N -> Prop) (selfclose : bool) :
  In (name, t) lb17_open_kws -> L (eq t) F inner (map tv its) Q ->
  (forall s, F ((if selfclose then [47; 125] else [125])%N ++ s)) ->
  lb17_cmd_runs ([123%N] ++ name ++ [32%N] ++ inner ++ (if selfclose then [47; 125] else [125])%N)
    ([tk pit_LeftDelim q [123%N]; kw t p] ++ its ++ [if selfclose then T_rdelim_end else T_rdelim]).
Proof.
  intros Hin HL HF l s Hs. rewrite <- !app_assoc in Hs.
  destruct (W lb17_go_open l name t q p _ Hin Hs (conj eq_refl eq_refl)) as (l1 & G1 & S1 & D1 & Q1).
  destruct (W lb17_go_lexes (eq t) F ([32%N] ++ inner) its Q l1 _ (W L_sp_l 0 _ _ _ _ _ HL) S1 (eq_sym Q1) (HF s)) as (l2 & G2 & S2 & D2 & _).
  rewrite D1 in D2.
  destruct selfclose;
    [destruct (W lb17_go_rdelim_end l2 s S2 D2) as (l3 & G3 & S3 & D3)|destruct (W lb17_go_rdelim l2 s S2 D2) as (l3 & G3 & S3 & D3)];
    (exists l3; split; [exact (lb17_go_trans G1 (lb17_go_trans G2 G3))|auto]).
Qed.

(* "{/kw}" *)
Lemma lb17_cmd_close cs t : In (cs, t) lb17_close_kws -> lb17_cmd_runs ([123; 47]%N ++ cs ++ [125%N]) (CmdSyntax.close_tag t).
Proof.
  intros Hin l s Hs. rewrite <- !app_assoc in Hs. destruct (W lb17_go_close l cs t s Hin Hs) as (l1 & G1 & S1 & D1). eauto.
Qed.

(* a sequence of tags and bodies: from state st to lexLeftDelim at the tag tl behind it *)
Definition lb17_seq_runs (st : lstate) (txt : bstr) (ts : list tok) : Prop :=
  forall l tl, span l [] (txt ++ tl) -> (st = LText -> l_dd l = false) -> (exists r0, tl = 123%N :: r0) ->
  exists l', go st l LLeftDelim l' ts /\ span l' [] tl.

Lemma lb17_seq_eq st t1 ts1 t2 ts2 : lb17_seq_runs st t1 ts1 -> t1 = t2 -> ts1 = ts2 -> lb17_seq_runs st t2 ts2.
Proof. intros H <- <-. exact H. Qed.

Lemma lb17_seq_nil : lb17_seq_runs LLeftDelim [] [].
Proof. intros l tl Hs _ _. exists l. split; [exists 0%nat; split; [reflexivity|apply lb17_sent_nil; reflexivity]|exact Hs]. Qed.

(* in lexText, in front of a tag *)
Lemma lb17_seq_text t ts : lb17_seq_runs LLeftDelim t ts -> tag_or_end t -> lb17_seq_runs LText t ts.
Proof.
  intros H Ht l tl Hs _ Htl.
  assert (E : exists r0, t ++ tl = 123%N :: r0) by (destruct Ht as [->|(r & ->)]; [exact Htl|eexists; reflexivity]).
  destruct E as (r0 & E). rewrite E in Hs. destruct (W lb17_go_text_tag l r0 Hs) as (l1 & G1 & S1 & _). rewrite <- E in S1.
  destruct (H l1 tl S1 ltac:(discriminate) Htl) as (l2 & G2 & S2). exists l2. split; [exact (lb17_go_trans G1 G2)|exact S2].
Qed.

Lemma lb17_seq_body body bts : lb17_body_runs body bts -> lb17_seq_runs LText body bts.
Proof.
  intros Hb l tl Hs Hdd Htl.
  destruct (Hb l tl Hs (Hdd eq_refl) (or_intror Htl)) as [(_ & l2 & G2 & S2 & _)|(E & _)]; [eauto|destruct Htl as (r0 & ->); discriminate E].
Qed.

(* a command, then a sequence *)
Lemma lb17_seq_cmd h hts t ts : lb17_cmd_runs h hts -> lb17_seq_runs LText t ts -> lb17_seq_runs LLeftDelim (h ++ t) (hts ++ ts).
Proof.
  intros Hh Ht l tl Hs _ Htl. rewrite <- app_assoc in Hs. destruct (Hh l _ Hs) as (l1 & G1 & S1 & D1).
  destruct (Ht l1 tl S1 (fun _ => D1) Htl) as (l2 & G2 & S2). exists l2. split; [exact (lb17_go_trans G1 G2)|exact S2].
Qed.

Lemma lb17_seq_app st t1 ts1 t2 ts2 : lb17_seq_runs st t1 ts1 -> lb17_seq_runs LLeftDelim t2 ts2 -> tag_or_end t2 ->
  lb17_seq_runs st (t1 ++ t2) (ts1 ++ ts2).
Proof.
  intros H1 H2 Ht l tl Hs Hdd Htl. rewrite <- app_assoc in Hs.
  destruct (H1 l (t2 ++ tl) Hs Hdd) as (l1 & G1 & S1). { destruct Ht as [->|(r & ->)]; [exact Htl|eexists; reflexivity]. }
  destruct (H2 l1 tl S1 ltac:(discriminate) Htl) as (l2 & G2 & S2). exists l2. split; [exact (lb17_go_trans G1 G2)|exact S2].
Qed.

(* a sequence, then the tag that closes it *)
Lemma lb17_seq_close t ts close cts r0 : lb17_seq_runs LLeftDelim t ts -> lb17_cmd_runs close cts -> close = 123%N :: r0 ->
  lb17_cmd_runs (t ++ close) (ts ++ cts).
Proof.
  intros Ht Hc -> l s Hs. rewrite <- app_assoc in Hs.
  destruct (Ht l _ Hs ltac:(discriminate) (ex_intro _ (r0 ++ s) eq_refl)) as (l1 & G1 & S1).
  destruct (Hc l1 s S1) as (l2 & G2 & S2 & D2). exists l2. split; [exact (lb17_go_trans G1 G2)|auto].
Qed.

(* head tag, body, tail (which begins with a tag) *)
Lemma lb17_cmd_block h hts body bts tail tts r0 : lb17_cmd_runs h hts -> lb17_body_runs body bts -> lb17_cmd_runs tail tts ->
  tail = 123%N :: r0 -> lb17_cmd_runs (h ++ body ++ tail) (hts ++ bts ++ tts).
Proof.
  intros Hh Hb Ht E. rewrite !app_assoc. exact (lb17_seq_close _ _ _ _ _ (lb17_seq_cmd _ _ _ _ Hh (lb17_seq_body _ _ Hb)) Ht E).
Qed.

(* "{kw e}" *)
Lemma lb17_cmd_kw_expr name t pp c sc : In (name, t) lb17_open_kws -> ends_term t = false ->
  wf_expr c -> lex_ok c -> print_node c = Some sc ->
  lb17_cmd_runs ([123%N] ++ name ++ [32%N] ++ sc ++ [125%N]) ([T_ldelim; kw t pp] ++ tokens_of c ++ [T_rdelim]).
Proof.
  intros Hin Het Hwf Hlo Hp.
  exact (lb17_cmd_tag name t 0%N pp fexp sc (tokens_of c) term false Hin
           (W L_eq_P 0 t _ _ _ _ _ (W lex_print 0 c Hwf Hlo sc Hp) Het) (fun s => fexp_head 125 s eq_refl)).
Qed.

(* the values of a {case}: e1,e2,... *)
Lemma lb17_L_vals vals l : vals <> [] -> allP wf_expr vals -> allP lex_ok vals -> opt_all (map print_node vals) = Some l ->
  L opnd fexp (join [44%N] l) (map tv (sep_join [T_comma] (map tokens_of vals))) term.
Proof.
  intros Hne Hwf Hlo El. rewrite map_tv_sep_join, map_map.
  exact (L_exprs uni_letter uni_digit letter_ascii digit_ascii letter_eof digit_eof inp vals l Hne Hwf Hlo El).
Qed.

(* "$name: e " of {let $name: e /} *)
Lemma lb17_L_letv name e se : alnums name -> wf_expr e -> lex_ok e -> print_node e = Some se ->
  L anyty anys ((36%N :: name) ++ [58; 32]%N ++ se ++ [32%N]) (map tv ([tk pit_DollarIdent 0 (36%N :: name); T_colon] ++ tokens_of e)) term.
Proof.
  intros Hn Hwf Hlo Hp.
  exact (W L_seq 0 _ _ _ _ _ _ _ _ _ _ (W lexes_dollar 0 name Hn)
           (W L_seq 0 _ _ _ _ _ _ _ _ _ _ (W L_colon_sp 0)
              (W L_sp_r 0 _ _ _ _ _ (W lex_print 0 e Hwf Hlo se Hp) (fun s => fexp_head 32 s eq_refl)) (fun _ _ => I) (fun _ H => H))
           (fun _ _ => conj eq_refl eq_refl) (fun _ _ => I)).
Qed.

(* "$x in e" of {for $x in e} *)
Lemma lb17_L_for var lst sl : alnums var -> lb17_anylast lst -> print_node lst = Some sl ->
  L anyty fexp ((36%N :: var) ++ [32%N] ++ [105; 110]%N ++ [32%N] ++ sl)
    (map tv ([tk pit_DollarIdent 0 (36%N :: var); tk pit_Ident 0 v_in] ++ tokens_of lst)) term.
Proof.
  intros Hv Hany Hp.
  exact (W L_seq 0 _ _ _ _ _ _ _ _ _ _ (W lexes_dollar 0 var Hv)
           (W L_sp_l 0 _ _ _ _ _
              (W L_seq 0 _ _ _ _ _ _ _ _ _ _ (W lexes_word 0 105%N [110%N] eq_refl eq_refl eq_refl ltac:(discriminate) ltac:(discriminate))
                 (W L_sp_l 0 _ _ _ _ _ (Hany uni_letter uni_digit letter_ascii digit_ascii letter_eof digit_eof inp sl Hp))
                 (fun _ _ => conj eq_refl eq_refl) (fun _ _ => I)))
           (fun _ _ => conj eq_refl eq_refl) (fun _ _ => I)).
Qed.

(* "key: e" of {param key: e/} *)
Lemma lb17_L_paramv key v sv : plain_word key -> wf_expr v -> lex_ok v -> print_node v = Some sv ->
  L anyty fexp (key ++ [58; 32]%N ++ sv) (map tv ([tk pit_Ident 0 key; T_colon] ++ tokens_of v)) term.
Proof.
  intros Hkey Hwf Hlo Hp.
  exact (W L_seq 0 _ _ _ _ _ _ _ _ _ _ (W L_ident 0 key Hkey)
           (W L_seq 0 _ _ _ _ _ _ _ _ _ _ (W L_colon_sp 0) (W lex_print 0 v Hwf Hlo sv Hp) (fun _ _ => I) (fun _ H => H))
           (fun _ _ => conj eq_refl eq_refl) (fun _ _ => I)).
Qed.

(* a printable-ASCII text without quote and backslash is its own rune sequence and a string body *)
Lemma lb17_plain_runes sd : CmdSyntax.plain sd -> string_of_runes sd = sd /\ Forall valid_scalar sd /\ str_body_ok 34 sd = true.
Proof.
  unfold CmdSyntax.plain. induction sd as [|c r IH]; cbn [forallb]; intros H; [repeat split; constructor|].
  apply Bool.andb_true_iff in H. destruct H as [Hc Hr]. destruct (IH Hr) as (A & B & C). unfold plain_b in Hc.
  split; [|split].
  - rewrite string_of_runes_cons, A. unfold encode_rune. assert (E : (c <? 128)%N = true) by lia. rewrite E. reflexivity.
  - constructor; [unfold valid_scalar; lia|exact B].
  - cbn [str_body_ok]. assert (E1 : (c =? 92)%N = false) by lia. assert (E2 : (c =? 34)%N = false) by lia. rewrite E1, E2. exact C.
Qed.

(* the attribute  data="..."  *)
Lemma lb17_L_data sd : CmdSyntax.plain sd -> L anyty anys (c_data ++ sd ++ [34%N]) (map tv (attr_toks v_data (dq sd))) (eq itemString).
Proof.
  intros Hpl. destruct (lb17_plain_runes sd Hpl) as (Hru & Hv & Hok).
  pose proof (W lb17_lexes_dqstring sd Hv Hok) as Hstr. rewrite Hru in Hstr.
  assert (Hpw : plain_word [100; 97; 116; 97]%N) by (exists 100%N, [97; 116; 97]%N; repeat split).
  assert (Heq : L anyty anys ([61%N] ++ 34%N :: sd ++ [34%N]) ([(itemEquals, [61%N])] ++ [(itemString, dq sd)]) (eq itemString)).
  { refine (W L_seq 0 _ _ _ _ _ _ _ _ _ _ (W lb17_L_equals) Hstr _ (fun _ _ => I)).
    intros s _. eexists; eexists. split; [reflexivity|]. split; [reflexivity|discriminate]. }
  exact (W L_sp_l 0 _ _ _ _ _ (W L_seq 0 _ _ _ _ _ _ _ _ _ _ (W L_ident 0 _ Hpw) Heq (fun _ _ => conj eq_refl eq_refl) (fun _ _ => I))).
Qed.

(* "a.b" and the data attribute of {call a.b data="..."} *)
Lemma lb17_L_call name alldata data : dotted_ok name -> lb17_data_ok alldata data ->
  L opnd fexp (name ++ lb17_call_sd alldata data) (map tv (call_name_toks name ++ lb17_call_attr alldata data)) anyty.
Proof.
  intros Hdot Hdata. pose proof (W lex_print 0 (NGlobal 0 name VUndef) eq_refl Hdot name eq_refl) as Hn.
  assert (Hd : forall sd, CmdSyntax.plain sd ->
            L opnd fexp (name ++ c_data ++ sd ++ [34%N]) (map tv (call_name_toks name ++ attr_toks v_data (dq sd))) anyty).
  { intros sd Hpl. rewrite map_app.
    exact (W L_seq 0 _ _ _ _ _ _ _ _ _ _ Hn (W L_weaken 0 _ _ _ _ _ _ _ _ (lb17_L_data sd Hpl) (fun _ _ => I) (fun _ _ => I) (fun _ _ => I))
             (fun s _ => fexp_head 32 _ eq_refl) (fun _ _ => I)). }
  unfold lb17_call_sd, lb17_call_attr. destruct alldata; [exact (Hd v_all eq_refl)|]. destruct data as [d|].
  - destruct Hdata as (_ & _ & Hpl & _). exact (Hd (printed d) Hpl).
  - rewrite !app_nil_r. exact (W L_weaken 0 _ _ _ _ _ _ _ _ Hn (fun _ H => H) (fun _ H => H) (fun _ _ => I)).
Qed.

(* {print}: "{" expr directives "}" *)
Lemma lb17_cmd_print p arg dirs txt : wf_print (NPrint p arg dirs) -> lex_ok_print (NPrint p arg dirs) ->
  print_node (NPrint p arg dirs) = Some txt -> lb17_cmd_runs txt (cmd_toks (NPrint p arg dirs)).
Proof.
  intros Hwf Hlo Hp l s Hs.
  cbn [wf_print lex_ok_print] in Hwf, Hlo. destruct Hwf as [Hwa Hwd]. destruct Hlo as [Hloa Hlod].
  cbn [print_node] in Hp. destruct (print_node arg) as [se|] eqn:Ea; cbn [obind] in Hp; [|discriminate].
  destruct (opt_all (map print_node dirs)) as [dl|] eqn:El; cbn [obind] in Hp; [|discriminate]. injection Hp as <-.
  destruct (print_tag_head arg se Hwa Hloa Ea) as (c & r & -> & Hc & H1 & H2 & H3).
  assert (Hs' : span l [] (123%N :: c :: r ++ concat_b dl ++ 125%N :: s)).
  { cbn [app] in Hs. rewrite <- !app_assoc in Hs. exact Hs. }
  destruct (delim_begin uni_letter uni_digit letter_ascii digit_ascii letter_eof digit_eof inp l c _ Hs' Hc H1 H2)
    as (l1 & p1 & Hst1 & Hs1 & Ho1 & Hla1 & Hdd1).
  rewrite (proj2 (N.eqb_neq c 92) H3) in Hst1.
  destruct (L_dirs uni_letter uni_digit letter_ascii digit_ascii letter_eof digit_eof inp dirs dl Hwd Hlod El) as (HLd & Hhd).
  assert (Hf1 : fexp (concat_b dl ++ 125%N :: s)).
  { destruct Hhd as [->|(r1 & ->)]; [exact (fexp_head 125 s eq_refl)|exact (fexp_head 124 _ eq_refl)]. }
  assert (Hs1' : span l1 [] ((c :: r) ++ concat_b dl ++ 125%N :: s)) by exact Hs1.
  destruct (lex_print uni_letter uni_digit letter_ascii digit_ascii letter_eof digit_eof inp 0 arg Hwa Hloa (c :: r) Ea l1 _ Hs1'
              ltac:(unfold opnd, last_typ; rewrite Hla1; reflexivity) Hf1) as (k2 & l2 & Hst2 & Hs2 & Hse2 & Hq2).
  destruct (HLd l2 (125%N :: s) Hs2 Hq2 (fexp_head 125 s eq_refl)) as (k3 & l3 & Hst3 & Hs3 & Hse3 & _).
  destruct (sends_out _ _ _ Hse2) as (_ & _ & _ & Hd2). destruct (sends_out _ _ _ Hse3) as (_ & _ & _ & Hd3).
  destruct (close_brace uni_letter uni_digit letter_eof digit_eof inp l3 s Hs3 ltac:(congruence)) as (l4 & p4 & Hst4 & Hs4 & Ho4 & Hla4 & Hdd4).
  exists l4. split; [|auto]. exists (2 + (k2 + (k3 + 2)))%nat. split.
  { rewrite (steps_app _ _ _ _ 2 _ _ _ _ _ Hst1), (steps_app _ _ _ _ k2 _ _ _ _ _ Hst2), (steps_app _ _ _ _ k3 _ _ _ _ _ Hst3). exact Hst4. }
  change (cmd_toks (NPrint p arg dirs)) with ([T_ldelim] ++ tokens_of_print (NPrint p arg dirs)).
  apply (lb17_sent_app _ _ l l1 l4).
  - eexists [_]. split; [rewrite Ho1; reflexivity|]. constructor; [|constructor]. split; reflexivity.
  - apply lb17_sent_sends. rewrite print_toks.
    eapply sends_app; [exact Hse2|]. eapply sends_app; [exact Hse3|]. apply sends_one.
    exists p4. split; [exact Ho4|]. split; [exact Hla4|congruence].
Qed.

(* "{for $x in e}" *)
Lemma lb17_cmd_for_head p var lst sl : alnums var -> lb17_anylast lst -> print_node lst = Some sl ->
  lb17_cmd_runs (c_for ++ var ++ c_in ++ sl ++ [125%N])
    ([T_ldelim; kw pit_For p; tk pit_DollarIdent 0 (36%N :: var); tk pit_Ident 0 v_in] ++ tokens_of lst ++ [T_rdelim]).
Proof.
  intros Hvar Hany Hp.
  refine (lb17_runs_eq _ _ _ _ (lb17_cmd_tag [102; 111; 114]%N itemFor 0%N p fexp _ _ term false ltac:(lb17_in)
            (W L_anyP 0 _ _ _ _ _ (lb17_L_for var lst sl Hvar Hany Hp)) (fun s => fexp_head 125 s eq_refl)) _ eq_refl).
  lb17_assoc.
Qed.

(* "{css txt}" *)
Lemma lb17_cmd_css p txt : lb17_css_ok txt -> lb17_cmd_runs (c_css ++ txt ++ [125%N]) [T_ldelim; kw pit_Css p; tk pit_Text 0 txt; T_rdelim].
Proof.
  intros Hall l s Hs. rewrite <- !app_assoc in Hs.
  exact (W lb17_go_css l p txt s Hs Hall).
Qed.

Theorem lb17_ok_runs :
  (forall c, lb17_okc c -> forall txt, print_tree c = Some txt -> lb17_cmd_runs txt (cmd_toks c)) /\
  (forall params, lb17_okparams params -> forall txts, opt_all (map print_tree params) = Some txts ->
     lb17_seq_runs LText (concat_b txts) (lb17_call_toks params)) /\
  (forall cases, lb17_okcases cases -> forall txts, opt_all (map print_tree cases) = Some txts ->
     lb17_seq_runs LLeftDelim (concat_b txts) (lb17_switch_toks cases)) /\
  (forall first conds, lb17_okconds first conds -> forall p txt, lb17_if_print first conds = Some txt ->
     lb17_seq_runs LLeftDelim txt (lb17_if_toks p first conds)) /\
  (forall ns, lb17_okb ns -> forall txts, opt_all (map print_tree ns) = Some txts ->
     lb17_body_runs (concat_b txts) (concat (map cmd_toks ns)) /\
     (lb17_hd_cmd ns -> forall l tl, span l [] (concat_b txts ++ tl) -> tag_or_end tl -> fin tl (concat (map cmd_toks ns)) LLeftDelim l)).
Proof.
  apply lb17_ok_mutind.
  - (* print *) intros p arg dirs Hwf Hlo txt Hp. apply lb17_cmd_print; assumption.
  - (* debugger *) intros p txt Hp. injection Hp as <-.
    exact (lb17_cmd_simple [100; 101; 98; 117; 103; 103; 101; 114]%N itemDebugger p ltac:(lb17_in)).
  - (* log *) intros p q ns _ IH txt Hp. rewrite lb17_print_log, lb17_print_list in Hp.
    destruct (opt_all (map print_tree ns)) as [txts|] eqn:E; cbn [omap obind] in Hp; [|discriminate]. injection Hp as <-.
    exact (lb17_cmd_block _ _ _ _ _ _ _ (lb17_cmd_simple [108; 111; 103]%N itemLog p ltac:(lb17_in)) (proj1 (IH txts eq_refl))
             (lb17_cmd_close [108; 111; 103]%N itemLogEnd ltac:(lb17_in)) eq_refl).
  - (* let value *) intros p name e Hname Hwf Hlo txt Hp. rewrite lb17_print_letv, (lb17_print_expr e Hwf) in Hp.
    destruct (print_node e) as [se|] eqn:E; cbn [obind] in Hp; [|discriminate]. injection Hp as <-.
    refine (lb17_runs_eq _ _ _ _ (lb17_cmd_tag [108; 101; 116]%N itemLet 0%N p anys _ _ _ true ltac:(lb17_in)
              (W L_anyP 0 _ _ _ _ _ (lb17_L_letv name e se Hname Hwf Hlo E)) (fun _ => I)) _ eq_refl).
    lb17_assoc.
  - (* let content *) intros p name q ns Hname _ IH txt Hp. rewrite lb17_print_letc, lb17_print_list in Hp.
    destruct (opt_all (map print_tree ns)) as [txts|] eqn:E; cbn [omap obind] in Hp; [|discriminate]. injection Hp as <-.
    refine (lb17_runs_eq _ _ _ _ (lb17_cmd_block _ _ _ _ _ _ _
              (lb17_cmd_tag [108; 101; 116]%N itemLet 0%N p stops _ [tk pit_DollarIdent 0 (36%N :: name)] _ false ltac:(lb17_in)
                 (W L_anyP 0 _ _ _ _ _ (W lexes_dollar 0 name Hname)) (fun _ => conj eq_refl eq_refl))
              (proj1 (IH txts eq_refl)) (lb17_cmd_close [108; 101; 116]%N itemLetEnd ltac:(lb17_in)) eq_refl) _ eq_refl).
    lb17_assoc.
  - (* if *) intros p conds _ IH txt Hp. rewrite lb17_print_if in Hp.
    destruct (lb17_if_print true conds) as [sc|] eqn:E; cbn [obind] in Hp; [|discriminate]. injection Hp as <-.
    rewrite lb17_toks_if. exact (lb17_seq_close _ _ _ _ _ (IH p sc eq_refl) (lb17_cmd_close [105; 102]%N itemIfEnd ltac:(lb17_in)) eq_refl).
  - (* for *) intros p var lst q ns Hvar Hwf Hlo Hnm _ IHb txt Hp. pose proof (lb17_anylast_wf lst Hwf Hlo Hnm) as Hany.
    rewrite lb17_print_for, (lb17_print_expr lst Hwf), lb17_print_list in Hp.
    destruct (print_node lst) as [sl|] eqn:El; cbn [obind] in Hp; [|discriminate].
    destruct (opt_all (map print_tree ns)) as [txts|] eqn:En; cbn [omap obind] in Hp; [|discriminate]. injection Hp as <-.
    refine (lb17_runs_eq _ _ _ _ (lb17_cmd_block _ _ _ _ _ _ _ (lb17_cmd_for_head p var lst sl Hvar Hany El) (proj1 (IHb txts eq_refl))
              (lb17_cmd_close [102; 111; 114]%N itemForEnd ltac:(lb17_in)) eq_refl) _ _); lb17_assoc.
  - (* for with ifempty *) intros p var lst q ns q2 ns2 Hvar Hwf Hlo Hnm _ IHb _ IHb2 txt Hp. pose proof (lb17_anylast_wf lst Hwf Hlo Hnm) as Hany.
    rewrite lb17_print_for, (lb17_print_expr lst Hwf), !lb17_print_list in Hp.
    destruct (print_node lst) as [sl|] eqn:El; cbn [obind] in Hp; [|discriminate].
    destruct (opt_all (map print_tree ns)) as [txts|] eqn:En; cbn [omap obind] in Hp; [|discriminate].
    destruct (opt_all (map print_tree ns2)) as [txts2|] eqn:En2; cbn [omap obind] in Hp; [|discriminate]. injection Hp as <-.
    refine (lb17_runs_eq _ _ _ _ (lb17_cmd_block _ _ _ _ _ _ _ (lb17_cmd_for_head p var lst sl Hvar Hany El) (proj1 (IHb txts eq_refl))
              (lb17_cmd_block _ _ _ _ _ _ _ (lb17_cmd_simple [105; 102; 101; 109; 112; 116; 121]%N itemIfempty 0%N ltac:(lb17_in)) (proj1 (IHb2 txts2 eq_refl))
                 (lb17_cmd_close [102; 111; 114]%N itemForEnd ltac:(lb17_in)) eq_refl) eq_refl) _ _); lb17_assoc.
  - (* switch *) intros p v cases Hwf Hlo Hokc IH txt Hp.
    rewrite lb17_print_switch, (lb17_print_expr v Hwf) in Hp.
    destruct (print_node v) as [sv|] eqn:Ev; cbn [obind] in Hp; [|discriminate].
    destruct (opt_all (map print_tree cases)) as [txts|] eqn:Ec; cbn [omap obind] in Hp; [|discriminate]. injection Hp as <-.
    refine (lb17_runs_eq _ _ _ _ (lb17_seq_close _ _ _ _ _
              (lb17_seq_cmd _ _ _ _ (lb17_cmd_kw_expr [115; 119; 105; 116; 99; 104]%N itemSwitch p v sv ltac:(lb17_in) eq_refl Hwf Hlo Ev)
                 (lb17_seq_text _ _ (IH txts eq_refl) (lb17_cases_head cases txts Hokc Ec)))
              (lb17_cmd_close [115; 119; 105; 116; 99; 104]%N itemSwitchEnd ltac:(lb17_in)) eq_refl) _ _); lb17_assoc.
  - (* css *) intros p suffix Hok txt Hp. injection Hp as <-. exact (lb17_cmd_css p suffix Hok).
  - (* css with an expression *) intros p x suffix Hwf Hok txt Hp. rewrite lb17_print_css_e, (lb17_print_expr x Hwf) in Hp.
    destruct (print_node x) as [sx|] eqn:Ex; cbn [obind] in Hp; [|discriminate]. injection Hp as <-.
    change (cmd_toks (NCss p (Some x) suffix)) with [T_ldelim; kw pit_Css p; tk pit_Text 0 (css_text (Some x) suffix); T_rdelim].
    assert (E : css_text (Some x) suffix = sx ++ [44; 32]%N ++ suffix) by (unfold css_text, printed; rewrite Ex; reflexivity).
    rewrite E in Hok |- *.
    refine (lb17_runs_eq _ _ _ _ (lb17_cmd_css p _ Hok) _ eq_refl). lb17_assoc.
  - (* call *) intros p name alldata data params Hdot Hdata Hokp IH txt Hp.
    rewrite (lb17_print_call _ _ _ _ _ Hdata) in Hp. cbv zeta in Hp.
    pose proof (fun sc => lb17_cmd_tag [99; 97; 108; 108]%N itemCall 0%N p fexp _ _ anyty sc ltac:(lb17_in)
                            (W L_eq_P 0 itemCall _ _ _ _ _ (lb17_L_call name alldata data Hdot Hdata) eq_refl)) as Htag.
    destruct params as [|p0 ps].
    + injection Hp as <-.
      refine (lb17_runs_eq _ _ _ _ (Htag true (fun s => fexp_head 47 s eq_refl)) _ _); lb17_assoc.
    + destruct (opt_all (map print_tree (p0 :: ps))) as [txts|] eqn:E; cbn [omap obind] in Hp; [|discriminate]. injection Hp as <-.
      refine (lb17_runs_eq _ _ _ _ (lb17_seq_close _ _ _ _ _ (lb17_seq_cmd _ _ _ _ (Htag false (fun s => fexp_head 125 s eq_refl)) (IH txts eq_refl))
                (lb17_cmd_close [99; 97; 108; 108]%N itemCallEnd ltac:(lb17_in)) eq_refl) _ _); lb17_assoc.
  - (* no more parameters *) intros txts Hp. injection Hp as <-. exact (lb17_seq_text _ _ lb17_seq_nil (or_introl eq_refl)).
  - (* {param k}...{/param} *) intros q key w ns r Hkey _ IHb _ IHr txts Hp.
    cbn [map opt_all] in Hp. rewrite lb17_print_param in Hp.
    destruct (opt_all (map print_tree ns)) as [tb|] eqn:En; cbn [omap obind] in Hp; [|discriminate].
    destruct (opt_all (map print_tree r)) as [tr|] eqn:Er; [|discriminate]. injection Hp as <-.
    refine (lb17_seq_eq _ _ _ _ _ (lb17_seq_text _ _ (lb17_seq_cmd _ _ _ _ (lb17_cmd_block _ _ _ _ _ _ _
                (lb17_cmd_tag [112; 97; 114; 97; 109]%N itemParam q 0%N stops key [tk pit_Ident 0 key] term false ltac:(lb17_in)
                   (W L_anyP 0 _ _ _ _ _ (W L_ident 0 key Hkey)) (fun _ => conj eq_refl eq_refl))
                (proj1 (IHb tb eq_refl)) (lb17_cmd_close [112; 97; 114; 97; 109]%N itemParamEnd ltac:(lb17_in)) eq_refl) (IHr tr eq_refl))
              (or_intror (ex_intro _ _ eq_refl))) _ (eq_sym (lb17_call_toks_cons q key w ns r))).
    lb17_assoc.
  - (* {param k: e/} *) intros q key v r Hkey Hwf Hlo _ IHr txts Hp.
    cbn [map opt_all] in Hp. rewrite lb17_print_paramv, (lb17_print_expr v Hwf) in Hp.
    destruct (print_node v) as [sv|] eqn:Ev; cbn [obind] in Hp; [|discriminate].
    destruct (opt_all (map print_tree r)) as [tr|] eqn:Er; [|discriminate]. injection Hp as <-.
    refine (lb17_seq_eq _ _ _ _ _ (lb17_seq_text _ _ (lb17_seq_cmd _ _ _ _
                (lb17_cmd_tag [112; 97; 114; 97; 109]%N itemParam q 0%N fexp _ _ term true ltac:(lb17_in)
                   (W L_anyP 0 _ _ _ _ _ (lb17_L_paramv key v sv Hkey Hwf Hlo Ev)) (fun s => fexp_head 47 s eq_refl)) (IHr tr eq_refl))
              (or_intror (ex_intro _ _ eq_refl))) _ (eq_sym (lb17_call_toks_cons_val q key v r))).
    lb17_assoc.
  - (* no more cases *) intros txts Hp. injection Hp as <-. exact lb17_seq_nil.
  - (* {case ...} *) intros q vals w ns r Hne Hwf Hlo _ IHb Hokr IHr txts Hp.
    cbn [map opt_all] in Hp. rewrite lb17_print_case, (lb17_print_exprs vals Hwf) in Hp.
    destruct (opt_all (map print_node vals)) as [lv|] eqn:Ev; cbn [obind] in Hp; [|discriminate].
    destruct (opt_all (map print_tree ns)) as [tb|] eqn:En; cbn [omap obind] in Hp; [|discriminate].
    destruct (opt_all (map print_tree r)) as [tr|] eqn:Er; [|discriminate]. injection Hp as <-.
    refine (lb17_seq_eq _ _ _ _ _ (lb17_seq_app _ _ _ _ _ (lb17_seq_cmd _ _ _ _
                (lb17_cmd_tag [99; 97; 115; 101]%N itemCase 0%N q fexp _ _ term false ltac:(lb17_in)
                   (W L_eq_P 0 itemCase _ _ _ _ _ (lb17_L_vals vals lv Hne Hwf Hlo Ev) eq_refl) (fun s => fexp_head 125 s eq_refl))
                (lb17_seq_body _ _ (proj1 (IHb tb eq_refl)))) (IHr tr eq_refl) (lb17_cases_head r tr Hokr Er)) _ _).
    + lb17_assoc.
    + destruct vals as [|v0 vals']; [congruence|]. rewrite lb17_switch_toks_cons. lb17_assoc.
  - (* no more conditions *) intros p txt Hp. injection Hp as <-. exact lb17_seq_nil.
  - (* {if e} / {elseif e} *) intros first q c w ns r Hwf Hlo _ IHb Hokr IHr p txt Hp.
    cbn [lb17_if_print] in Hp. rewrite lb17_print_ifcond, (lb17_print_expr c Hwf) in Hp.
    destruct (print_node c) as [sc|] eqn:Ec; cbn [omap obind] in Hp; [|discriminate].
    destruct (opt_all (map print_tree ns)) as [txts|] eqn:En; cbn [omap obind] in Hp; [|discriminate].
    destruct (lb17_if_print false r) as [sr|] eqn:Er; cbn [obind] in Hp; [|discriminate]. injection Hp as <-.
    refine (lb17_seq_eq _ _ _ _ _ (lb17_seq_app _ _ _ _ _ (lb17_seq_cmd _ _ _ _
                (lb17_cmd_kw_expr (if first then [105; 102]%N else [101; 108; 115; 101; 105; 102]%N) (if first then itemIf else itemElseif)
                   (if first then p else 0%N) c sc ltac:(destruct first; lb17_in) ltac:(destruct first; reflexivity) Hwf Hlo Ec)
                (lb17_seq_body _ _ (proj1 (IHb txts eq_refl)))) (IHr p sr eq_refl) (lb17_if_print_head r sr Hokr Er)) _ _);
      destruct first; lb17_assoc.
  - (* {else} *) intros q w ns _ IHb p txt Hp.
    cbn [lb17_if_print] in Hp. rewrite lb17_print_ifelse in Hp.
    destruct (opt_all (map print_tree ns)) as [txts|] eqn:En; cbn [omap obind] in Hp; [|discriminate]. injection Hp as <-.
    refine (lb17_seq_eq _ _ _ _ _ (lb17_seq_app _ _ _ _ _ (lb17_seq_cmd _ _ _ _ (lb17_cmd_simple [101; 108; 115; 101]%N itemElse 0%N ltac:(lb17_in))
              (lb17_seq_body _ _ (proj1 (IHb txts eq_refl)))) lb17_seq_nil (or_introl eq_refl)) _ _); lb17_assoc.
  - (* the empty body *) intros txts Hp. injection Hp as <-. split; [|intros []].
    intros l tl Hs Hdd Htl. apply (W lb17_fin_text l [] tl); try assumption; try exact lb17_one_piece_nil; try constructor.
  - (* raw text first *) intros p t r Hpl Hns Hdr Hokr IHr Hhd txts Hp. split; [|intros []].
    cbn [map opt_all] in Hp. change (print_tree (NRawText p t)) with (Some t) in Hp.
    destruct (opt_all (map print_tree r)) as [tr|] eqn:Er; [|discriminate]. injection Hp as <-.
    destruct (IHr tr eq_refl) as [_ IHB].
    intros l tl Hs Hdd Htl. cbn [concat_b] in Hs. rewrite <- app_assoc in Hs.
    cbn [map concat]. change (cmd_toks (NRawText p t)) with [tk pit_Text p t].
    destruct r as [|c r'].
    + cbn [map opt_all] in Er. injection Er as <-. cbn [concat_b app] in Hs. cbn [map concat].
      apply (W lb17_fin_text l t tl); try assumption. rewrite Hdr. eexists; reflexivity.
    + assert (Hokc : lb17_okc c /\ lb17_hd_cmd (c :: r')).
      { inversion Hokr as [|? ? ? ? ? ? ? ?|? ? Hc ?]; subst; [contradiction|]. split; [exact Hc|].
        destruct Hc; exact I. }
      destruct Hokc as [Hokc Hhc].
      assert (Htr : exists r0, concat_b tr = 123%N :: r0).
      { cbn [map opt_all] in Er. destruct (print_tree c) as [tc|] eqn:Ec; [|discriminate].
        destruct (opt_all (map print_tree r')); [|discriminate]. injection Er as <-.
        destruct (lb17_okc_head c tc Hokc Ec) as (r0 & ->). eexists; reflexivity. }
      destruct Htr as (r0 & Ehd).
      destruct (W lb17_fin_text l t (concat_b tr ++ tl) [tk pit_Text p t] Hs Hdd Hpl Hns
                  (or_intror (ex_intro _ (r0 ++ tl) (f_equal (fun x => x ++ tl) Ehd))) ltac:(rewrite Hdr; eexists; reflexivity))
        as [(_ & l1 & G1 & S1 & D1)|(E & _)]; [|rewrite Ehd in E; discriminate E].
      exact (W lb17_fin_prefix _ _ _ _ _ _ _ G1 (IHB Hhc l1 tl S1 Htl)).
  - (* a command first *) intros c r Hokc IHc Hokr IHr txts Hp.
    cbn [map opt_all] in Hp. destruct (print_tree c) as [tc|] eqn:Ec; [|discriminate].
    destruct (opt_all (map print_tree r)) as [tr|] eqn:Er; [|discriminate]. injection Hp as <-.
    destruct (IHr tr eq_refl) as [IHA _]. cbn [concat_b map concat].
    assert (HB : forall l tl, span l [] ((tc ++ concat_b tr) ++ tl) -> tag_or_end tl -> fin tl (cmd_toks c ++ concat (map cmd_toks r)) LLeftDelim l).
    { intros l tl Hs Htl. rewrite <- app_assoc in Hs.
      destruct (IHc tc eq_refl l (concat_b tr ++ tl) Hs) as (l1 & G1 & S1 & D1).
      exact (W lb17_fin_prefix _ _ _ _ _ _ _ G1 (IHA l1 tl S1 D1 Htl)). }
    split; [|intros _; exact HB].
    intros l tl Hs Hdd Htl. destruct (lb17_okc_head c tc Hokc Ec) as (r0 & ->).
    destruct (W lb17_go_text_tag l ((r0 ++ concat_b tr) ++ tl) Hs) as (l1 & G1 & S1 & D1).
    exact (W lb17_fin_prefix _ _ _ _ _ _ _ G1 (HB l1 tl S1 Htl)).
Qed.

End Body.

(* a whole input that ends a body: the items sent, then EOF *)
Lemma lb17_fin_items (uni_letter uni_digit : Z -> bool) txt ts : uni_letter (-1) = false -> uni_digit (-1) = false ->
  lb17_fin uni_letter uni_digit txt [] ts LText lex_init ->
  exists its e, lex_items uni_letter uni_digit (lex_budget txt) false txt = Ok (its ++ [e]) /\ t_typ e = itemEOF /\ map tv its = map tv ts.
Proof.
  intros Hle Hde [(Hne & _)|(_ & k & l' & its & e & Hst & HF & He & Ho)]; [congruence|].
  exists its, e. split; [|split; [exact He|apply lb17_sim_tv; exact HF]].
  rewrite (lex_items_steps uni_letter uni_digit false txt k l' Hle Hde Hst), Ho. cbn [lex_init l_out rev].
  rewrite app_nil_r, rev_involutive. reflexivity.
Qed.

Lemma lb17_span_init txt : span txt lex_init [] txt.
Proof. unfold span, lex_init. cbn [l_start l_pos length]. repeat split; lia. Qed.

(* lex(name, String(body)) for a covered body: the items of body_toks (types and texts), then EOF *)
Theorem lb17_lex_body (uni_letter uni_digit : Z -> bool) :
  (forall c, (c < 128)%N -> uni_letter (Z.of_N c) = ((65 <=? c) && (c <=? 90) || (97 <=? c) && (c <=? 122))%N) ->
  (forall c, (c < 128)%N -> uni_digit (Z.of_N c) = digit_b c) ->
  uni_letter (-1) = false -> uni_digit (-1) = false ->
  forall q ns txt, lb17_okb ns -> print_tree (NList q ns) = Some txt ->
  exists its e, lex_items uni_letter uni_digit (lex_budget txt) false txt = Ok (its ++ [e]) /\ t_typ e = itemEOF /\
    map tv its = map tv (body_toks (NList q ns)).
Proof.
  intros Hla Hda Hle Hde q ns txt Hok Hp. rewrite lb17_print_list in Hp.
  destruct (opt_all (map print_tree ns)) as [txts|] eqn:E; cbn [omap] in Hp; [|discriminate]. injection Hp as <-.
  destruct (lb17_ok_runs uni_letter uni_digit Hla Hda Hle Hde (concat_b txts)) as (_ & _ & _ & _ & HB).
  apply (lb17_fin_items uni_letter uni_digit _ _ Hle Hde).
  apply (proj1 (HB ns Hok txts E) lex_init []); [rewrite app_nil_r; apply lb17_span_init|reflexivity|left; reflexivity].
Qed.

(* the body of a template followed by the template's closing tag *)
Theorem lb17_lex_template_body (uni_letter uni_digit : Z -> bool) :
  (forall c, (c < 128)%N -> uni_letter (Z.of_N c) = ((65 <=? c) && (c <=? 90) || (97 <=? c) && (c <=? 122))%N) ->
  (forall c, (c < 128)%N -> uni_digit (Z.of_N c) = digit_b c) ->
  uni_letter (-1) = false -> uni_digit (-1) = false ->
  forall q ns txt, lb17_okb ns -> print_tree (NList q ns) = Some txt ->
  exists its e, lex_items uni_letter uni_digit (lex_budget (txt ++ b "{/template}")) false (txt ++ b "{/template}") = Ok (its ++ [e]) /\
    t_typ e = itemEOF /\
    map tv its = map tv (body_toks (NList q ns) ++ [T_ldelim; kw pit_TemplateEnd 0; T_rdelim]).
Proof.
  intros Hla Hda Hle Hde q ns txt0 Hok Hp. rewrite lb17_print_list in Hp.
  destruct (opt_all (map print_tree ns)) as [txts|] eqn:E; cbn [omap] in Hp; [|discriminate]. injection Hp as <-.
  set (tl := b "{/template}"). set (txt := concat_b txts ++ tl).
  destruct (lb17_ok_runs uni_letter uni_digit Hla Hda Hle Hde txt) as (_ & _ & _ & _ & HB).
  destruct (proj1 (HB ns Hok txts E) lex_init tl (lb17_span_init txt) eq_refl ltac:(right; eexists; reflexivity))
    as [(_ & l1 & G1 & S1 & D1)|(Hnil & _)]; [|discriminate Hnil].
  destruct (lb17_go_close uni_letter uni_digit Hla Hda Hle Hde txt l1 [116; 101; 109; 112; 108; 97; 116; 101]%N itemTemplateEnd [] ltac:(lb17_in) S1)
    as (l2 & G2 & S2 & D2).
  apply (lb17_fin_items uni_letter uni_digit _ _ Hle Hde).
  refine (lb17_fin_prefix uni_letter uni_digit Hla Hda Hle Hde txt [] _ _ _ _ _ _ G1
            (lb17_fin_prefix uni_letter uni_digit Hla Hda Hle Hde txt [] _ _ _ _ _ _ G2
               (lb17_fin_text uni_letter uni_digit Hla Hda Hle Hde txt l2 [] [] [] S2 D2 ltac:(constructor) lb17_one_piece_nil (or_introl eq_refl) eq_refl))).
Qed.

(* the same with the toolchain's unicode tables *)
Theorem lb17_lex_body_tbl : forall q ns txt, lb17_okb ns -> print_tree (NList q ns) = Some txt ->
  exists its e, lex_items is_letter_tbl is_digit_tbl (lex_budget txt) false txt = Ok (its ++ [e]) /\ t_typ e = itemEOF /\
    map tv its = map tv (body_toks (NList q ns)).
Proof.
  destruct tables_ascii as [Hl Hd]. destruct tables_eof as [El Ed].
  exact (lb17_lex_body is_letter_tbl is_digit_tbl Hl Hd El Ed).
Qed.

Theorem lb17_lex_template_body_tbl : forall q ns txt, lb17_okb ns -> print_tree (NList q ns) = Some txt ->
  exists its e, lex_items is_letter_tbl is_digit_tbl (lex_budget (txt ++ b "{/template}")) false (txt ++ b "{/template}") = Ok (its ++ [e]) /\
    t_typ e = itemEOF /\
    map tv its = map tv (body_toks (NList q ns) ++ [T_ldelim; kw pit_TemplateEnd 0; T_rdelim]).
Proof.
  destruct tables_ascii as [Hl Hd]. destruct tables_eof as [El Ed].
  exact (lb17_lex_template_body is_letter_tbl is_digit_tbl Hl Hd El Ed).
Qed.
