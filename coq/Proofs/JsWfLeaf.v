(* C14, token grammar, bytes: the byte lexer on the rendering of ONE chunk -- a text, a name, a number, a string
   literal -- followed by anything the grammar accepts next. *)
From Soy Require Import Model.Bytes Model.Utf8 Model.JsEscape Model.JsGen Spec.JsSyntax Spec.JsShape.
From Soy Require Import Proofs.BytesBase Proofs.JsWfSplitBase Proofs.JsWfSplitNum Proofs.JsWfSplit Proofs.JsWfTail Proofs.JsWfStr.
From Coq Require Import ZifyBool Lia.
Open Scope N_scope.

Lemma ident_not_open a : is_ident_part a = true -> open_punct a = false /\ (is_space a || (a =? 168) || (a =? 169)) = false.
Proof.
  unfold is_ident_part, is_ident_start, is_digit, is_space, open_punct. cbn [existsb]. intro H. split; lia.
Qed.
Lemma tail_okb_word a li m' : is_ident_part a = true -> word_free m' = true -> (li = true -> dot_free m' = true) -> tail_okb a li m' = true.
Proof.
  intros Ha W D. destruct (ident_not_open a Ha) as [O Sp]. unfold tail_okb. rewrite Ha, W, O, Sp. cbn [negb orb andb].
  destruct li; [rewrite D by reflexivity|]; reflexivity.
Qed.

Lemma text_leaf md t ts m' rest : lex_text 0 LNormal t = Some (ts, LNormal) -> tail_ok t ts m' -> cont_ok md m' rest ->
  lex_text 0 LNormal (t ++ rest) = option_map (fun '(t0, m0) => (ts ++ t0, m0)) (lex_text 0 LNormal rest).
Proof.
  intros L T C. destruct rest as [|b r'].
  - rewrite app_nil_r, L. cbn. rewrite app_nil_r. reflexivity.
  - apply lex_split; [exact L|]. eapply sep_from_tail; eassumption.
Qed.

Lemma ident_bytes x : ident_ok x = true -> lex_text 0 LNormal x = Some ([tok_of_ident x], LNormal).
Proof.
  destruct x as [|c r]; [discriminate|]. cbn [ident_ok]. intro H. apply andb_prop in H. destruct H as [H1 H2].
  assert (Hp : is_ident_part c = true) by (unfold is_ident_part; rewrite H1; reflexivity).
  destruct (ident_not_space c Hp) as [E1 E2]. cbn [lex_text]. rewrite E1, E2, H1.
  rewrite (forallb_span_all _ _ H2), take_whole, lex_skip_all. reflexivity.
Qed.
Lemma ident_ok_last x : ident_ok x = true -> x <> [] /\ is_ident_part (last x 0) = true.
Proof.
  destruct x as [|c r]; [discriminate|]. cbn [ident_ok]. intro H. apply andb_prop in H. destruct H as [H1 H2]. split; [discriminate|].
  apply last_forallb; [discriminate|]. cbn [forallb]. rewrite H2. unfold is_ident_part. rewrite H1. reflexivity.
Qed.

Lemma sepP_ident_dot p r' : p <> [] -> is_ident_part (last p 0) = true -> sepP p false (46 :: r').
Proof.
  intros Hp Ha. destruct p as [|c0 p0]; [congruence|]. unfold sepP. destruct (ident_not_open _ Ha) as [O Sp].
  split; [intros _; reflexivity|]. split; [discriminate|]. split; [intro E; rewrite E in Ha; discriminate Ha|]. split.
  - destruct (glue (last (c0 :: p0) 0) 46) eqn:G; [|reflexivity]. destruct (glue_cases _ _ G) as (Ho & _). congruence.
  - intros H. exfalso. apply orb_false_elim in Sp. destruct Sp as [Sp S3]. apply orb_false_elim in Sp. destruct Sp as [S1 S2].
    destruct H as [H|[H|H]]; [congruence|rewrite H in S2; discriminate|rewrite H in S3; discriminate].
Qed.
Lemma sepP_dot_ident c r' : is_ident_start c = true -> sepP [46] false (c :: r').
Proof.
  intro Hc. unfold sepP. cbn [last]. split; [discriminate|]. split; [discriminate|].
  split; [intros _; unfold is_ident_start, is_digit in *; lia|]. split.
  - destruct (glue 46 c) eqn:G; [|reflexivity]. destruct (glue_cases _ _ G) as (_ & G46 & _). rewrite (G46 eq_refl) in Hc. discriminate.
  - intros [H|[H|H]]; discriminate.
Qed.

Lemma split_dots_ne s : forall cur, split_dots cur s <> [].
Proof. induction s as [|c r IH]; intro cur; cbn [split_dots]; [discriminate|]. destruct (c =? 46); [discriminate|apply IH]. Qed.
Lemma join_split s : forall cur, join_dots (split_dots cur s) = rev cur ++ s.
Proof.
  induction s as [|c r IH]; intro cur; cbn [split_dots].
  - cbn. rewrite app_nil_r. reflexivity.
  - destruct (c =? 46) eqn:E.
    + apply N.eqb_eq in E. subst c. specialize (IH []). cbn [rev app] in IH.
      destruct (split_dots [] r) as [|q l] eqn:Es; [exfalso; exact (split_dots_ne r [] Es)|].
      change (join_dots (rev cur :: q :: l)) with (rev cur ++ [46] ++ join_dots (q :: l)). rewrite IH. reflexivity.
    + rewrite IH. cbn [rev]. rewrite <- app_assoc. reflexivity.
Qed.
Lemma last_app_cons (p : bstr) x l d : last (p ++ x :: l) d = last (x :: l) d.
Proof. induction p as [|c p IH]; [reflexivity|]. cbn [app]. rewrite last_cons_ne by (destruct p; discriminate). exact IH. Qed.

Lemma lastint_ident p : lastint [tok_of_ident p] = false.
Proof. unfold lastint. cbn [last]. unfold tok_of_ident. destruct (assoc_s p kw_table); reflexivity. Qed.
Lemma lex_join parts : parts <> [] -> forallb ident_ok parts = true ->
  lex_text 0 LNormal (join_dots parts) = Some (name_tokens parts, LNormal)
  /\ join_dots parts <> [] /\ is_ident_part (last (join_dots parts) 0) = true /\ lastint (name_tokens parts) = false
  /\ is_ident_start (hd 0 (join_dots parts)) = true.
Proof.
  induction parts as [|p l IH]; [congruence|]. intros _ H. cbn [forallb] in H. apply andb_prop in H. destruct H as [Hp Hl].
  destruct (ident_ok_last p Hp) as [Pn Pl].
  assert (Ph : is_ident_start (hd 0 p) = true) by (destruct p; [discriminate|]; cbn in Hp; apply andb_prop in Hp; apply Hp).
  destruct l as [|q r].
  - cbn [join_dots name_tokens]. split; [apply ident_bytes; exact Hp|]. split; [exact Pn|]. split; [exact Pl|]. split; [|exact Ph].
    apply lastint_ident.
  - destruct (IH ltac:(discriminate) Hl) as (L & Jn & Jl & Ji & Jh). set (J := join_dots (q :: r)) in *.
    change (join_dots (p :: q :: r)) with (p ++ [46] ++ J). change (name_tokens (p :: q :: r)) with (tok_of_ident p :: TP PDot :: name_tokens (q :: r)).
    destruct J as [|c J'] eqn:EJ; [congruence|]. cbn [hd] in Jh. cbn [app].
    split.
    + rewrite (lex_split 46 (c :: J') p 0 LNormal [tok_of_ident p]); [|apply ident_bytes; exact Hp|].
      2:{ rewrite lastint_ident. apply sepP_ident_dot; assumption. }
      change (46 :: c :: J') with ([46] ++ c :: J').
      rewrite (lex_split c J' [46] 0 LNormal [TP PDot]); [|vm_compute; reflexivity|].
      2:{ apply sepP_dot_ident. exact Jh. }
      rewrite L. reflexivity.
    + split; [destruct p; discriminate|]. split; [rewrite last_app_cons; rewrite last_cons_ne by discriminate; exact Jl|].
      split.
      * unfold lastint in *. rewrite !last_cons_ne; [exact Ji| |discriminate].
        destruct r; cbn [name_tokens]; discriminate.
      * destruct p; [congruence|exact Ph].
Qed.

Lemma name_bytes x ts : lex_name x = Some ts ->
  lex_text 0 LNormal x = Some (ts, LNormal) /\ x <> [] /\ is_ident_part (last x 0) = true /\ lastint ts = false.
Proof.
  unfold lex_name. destruct (forallb ident_ok (split_dots [] x)) eqn:E; [|discriminate]. intro H. injection H as <-.
  destruct (lex_join _ (split_dots_ne x []) E) as (L & Jn & Jl & Ji & _). rewrite join_split in *. cbn [rev app] in *. auto.
Qed.

Lemma unsigned_bytes x : unsigned_num_ok x = true -> lex_text 0 LNormal x = Some ([TNum x], LNormal).
Proof.
  destruct x as [|c r]; [discriminate|]. unfold unsigned_num_ok. intro H. apply andb_prop in H. destruct H as [Hd Hn].
  destruct (num_span (c :: r)) as [n|] eqn:En; [|discriminate]. apply Nat.eqb_eq in Hn. subst n.
  destruct (ident_not_space c (digit_ident _ Hd)) as [E1 E2].
  assert (E3 : is_ident_start c = false) by (unfold is_ident_start, is_digit in *; lia).
  cbn [lex_text]. rewrite E1, E2, E3, Hd, En. cbn [length]. rewrite lex_skip_all. cbn [option_map].
  change (take (S (length r)) (c :: r)) with (take (length (c :: r)) (c :: r)). rewrite take_whole. reflexivity.
Qed.
Lemma glue_digit a c : is_digit c = true -> glue a c = false.
Proof.
  intro Hd. destruct (glue a c) eqn:G; [|reflexivity]. exfalso. apply glue_pairs in G. unfold all_pairs in G. cbn [In] in G.
  repeat (destruct G as [G|G]; [injection G as <- <-; discriminate Hd|]). contradiction.
Qed.
Lemma num_bytes x ts : lex_num x = Some ts -> lex_text 0 LNormal x = Some (ts, LNormal).
Proof.
  unfold lex_num. destruct x as [|c r]; [discriminate|]. destruct (c =? 45) eqn:E.
  - apply N.eqb_eq in E. subst c. destruct (unsigned_num_ok r) eqn:U; [|discriminate]. intro H. injection H as <-.
    destruct r as [|d r0]; [discriminate U|]. change (45 :: d :: r0) with ([45] ++ d :: r0).
    assert (Hd : is_digit d = true) by (unfold unsigned_num_ok in U; apply andb_prop in U; apply U).
    rewrite (lex_split d r0 [45] 0 LNormal [TP PMinus]); [|vm_compute; reflexivity|].
    + rewrite unsigned_bytes by exact U. reflexivity.
    + unfold sepP. cbn [last]. split; [discriminate|]. split; [discriminate|]. split; [discriminate|].
      split; [apply glue_digit; exact Hd|]. intros [H|[H|H]]; discriminate.
  - assert (Hm : match c :: r with 45 :: r1 => if unsigned_num_ok r1 then Some [TP PMinus; TNum r1] else None
                 | _ => if unsigned_num_ok (c :: r) then Some [TNum (c :: r)] else None end
                 = if unsigned_num_ok (c :: r) then Some [TNum (c :: r)] else None).
    { destruct c as [|p]; [reflexivity|]. repeat (destruct p as [p|p|]; try reflexivity). discriminate E. }
    rewrite Hm. destruct (unsigned_num_ok (c :: r)) eqn:U; [|discriminate]. intro H. injection H as <-. apply unsigned_bytes. exact U.
Qed.

Lemma tok_eqb_eq a : forall c, tok_eqb a c = true -> a = c.
Proof.
  induction a as [x|k x|x| |p|t IH]; destruct c as [y|k' y|y| |q|t']; cbn [tok_eqb]; intro H; try discriminate.
  - f_equal. apply bstr_eqb_eq. exact H.
  - apply andb_prop in H. destruct H as [H1 H2]. apply bstr_eqb_eq in H2. subst. destruct k, k'; try discriminate H1; reflexivity.
  - f_equal. apply bstr_eqb_eq. exact H.
  - reflexivity.
  - f_equal. destruct p, q; try discriminate H; try reflexivity. cbn in H. apply bstr_eqb_eq in H. subst. reflexivity.
  - f_equal. apply IH. exact H.
Qed.
Lemma toks_eqb_eq a : forall c, toks_eqb a c = true -> a = c.
Proof.
  induction a as [|x a IH]; destruct c as [|y c]; cbn; intro H; try discriminate; auto.
  apply andb_prop in H. destruct H as [H1 H2]. apply tok_eqb_eq in H1. subst. f_equal. auto.
Qed.
