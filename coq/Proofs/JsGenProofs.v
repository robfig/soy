(* Proofs about the JavaScript generator model (Model/JsGen.v).

   A generic "writer" invariant.  For a predicate Q on chunks that the
   generator's own emissions satisfy, every action of the generator only
   APPENDS chunks satisfying Q to the output (and keeps the import table in
   Q).  Instantiated in JsGenInv.v. *)
From Soy Require Import Model.Bytes Model.Num Model.Values Model.Outcome Model.Ast Model.Utf8 Model.JsEscape
  Generated.Tables Model.JsGen Proofs.BytesBase.
Open Scope N_scope.

Lemma Forall_rev_append {A} (P : A -> Prop) (l acc : list A) : Forall P l -> Forall P acc -> Forall P (rev_append l acc).
Proof. revert acc. induction l as [|x l IH]; intros acc Hl Ha; cbn; auto. inversion Hl; subst. apply IH; auto. Qed.


Section Inv.
Variable Q : chunk -> Prop.

Definition called_ok (st : jstate) : Prop := Forall (fun kv : bstr * list chunk => Forall Q (snd kv)) (j_called st).

(* the action appends [cs] (all in Q), keeps the import table in Q, and its result satisfies R *)
Definition jspec {A} (R : A -> Prop) (m : J A) : Prop :=
  forall st x st', called_ok st -> m st = Ok (x, st') ->
    exists cs, j_out st' = rev cs ++ j_out st /\ Forall Q cs /\ called_ok st' /\ R x.

Definition T {A} : A -> Prop := fun _ => True.

Lemma jspec_weaken {A} (R R' : A -> Prop) m : (forall x, R x -> R' x) -> jspec R m -> jspec R' m.
Proof. intros HR H st x st' Hc E. destruct (H st x st' Hc E) as (cs & E1 & F & C & Rx). exists cs; auto. Qed.

Lemma jspec_ret {A} (R : A -> Prop) (x : A) : R x -> jspec R (jret x).
Proof. intros Rx st y st' Hc E. inversion E; subst. exists []. cbn. auto. Qed.

Lemma jspec_fail {A} (R : A -> Prop) m : jspec R (@jfail A m).
Proof. intros st x st' _ E. discriminate. Qed.

Lemma jbind_inv {A B} (m : J A) (f : A -> J B) st r : jbind m f st = Ok r -> exists x st', m st = Ok (x, st') /\ f x st' = Ok r.
Proof. unfold jbind. destruct (m st) as [[x st']| | | | |]; try discriminate. eauto. Qed.

Lemma jspec_bind {A B} (R1 : A -> Prop) (R2 : B -> Prop) (m : J A) (f : A -> J B) :
  jspec R1 m -> (forall x, R1 x -> jspec R2 (f x)) -> jspec R2 (jbind m f).
Proof.
  intros H1 H2 st y st'' Hc E. apply jbind_inv in E. destruct E as (x & st' & Em & E).
  destruct (H1 st x st' Hc Em) as (cs1 & E1 & F1 & C1 & Rx).
  destruct (H2 x Rx st' y st'' C1 E) as (cs2 & E2 & F2 & C2 & Ry).
  exists (cs1 ++ cs2). rewrite E2, E1, rev_app_distr, app_assoc. repeat split; auto. apply Forall_app; auto.
Qed.

Lemma jspec_get : jspec (fun _ => True) jget.
Proof. intros st x st' Hc E. inversion E; subst. exists []. cbn; auto. Qed.

(* state changes that touch neither the output nor the import table *)
Lemma jspec_mod (f : jstate -> jstate) :
  (forall st, j_out (f st) = j_out st) -> (forall st, j_called (f st) = j_called st) -> jspec T (jmod f).
Proof.
  intros Ho Hcl st x st' Hc E. inversion E; subst. exists []. cbn. rewrite Ho. split; [reflexivity|]. split; [constructor|].
  split; [|exact I]. unfold called_ok. rewrite Hcl. exact Hc.
Qed.

Lemma jspec_emit cs : Forall Q cs -> jspec T (jemit cs).
Proof.
  intros F st x st' Hc E. inversion E; subst. exists cs. cbn. rewrite rev_append_rev. split; [reflexivity|]. split; [exact F|].
  split; [exact Hc|exact I].
Qed.

Lemma jspec_txt t : Q (CText t) -> jspec T (jtxt t).
Proof. intro H. apply jspec_emit. constructor; auto. Qed.

Lemma jspec_stuck {A} (R : A -> Prop) (o : outcome (A * jstate)) : (forall v, o <> Ok v) -> jspec R (fun _ => o).
Proof. intros H st x st' _ E. exfalso. exact (H _ E). Qed.

Lemma jspec_lift {A} (R : A -> Prop) (o : outcome A) : (forall v, o = Ok v -> R v) -> jspec R (jlift o).
Proof.
  intros H st x st' Hc E. unfold jlift in E. destruct o; try discriminate. inversion E; subst. exists []. cbn. auto.
Qed.

Lemma jspec_note_called key imp : Forall Q imp -> jspec T (note_called key imp).
Proof.
  intros F. unfold note_called. destruct imp as [|c imp']. apply jspec_ret; exact I.
  intros st x st' Hc E. inversion E; subst. exists []. cbn. split; [reflexivity|]. split; [constructor|]. split; [|exact I].
  unfold called_ok in *. cbn. clear E. induction (j_called st) as [|[k v] l IH]; cbn.
  - constructor; auto.
  - inversion Hc; subst. destruct (bstr_eqb key k); constructor; auto.
Qed.

End Inv.

Arguments T {A} _ /.
