(* Prefix determinism of the scanner, part 3: lexHeaderParam (the scan of the type backs up over trailing white space: where skipSpace then stops). *)
From Soy Require Import Model.Bytes Model.Utf8 Model.Outcome Model.Token Model.Lexer Generated.Tables Proofs.LexPrefix Proofs.LexPrefixStates.
From Coq Require Import ZifyBool Lia List.
Import ListNotations.
Open Scope Z_scope.

Section Skip.
Variable inp : bstr.
Notation n := (Z.of_nat (length inp)).
Variable base : Z.

(* the rune next() returns and the cursor it moves to depend on the cursor only *)
Lemma next_pos l r l1 q : next inp n l = Ok (r, l1) -> l_pos q = l_pos l -> exists q1, next inp n q = Ok (r, q1) /\ l_pos q1 = l_pos l1.
Proof.
  unfold next. intros H E. rewrite E. destruct (n <=? l_pos l); [inversion H; subst; eexists; split; [reflexivity|cbn [l_pos]; reflexivity]|].
  destruct (l_pos l <? 0); [discriminate|]. destruct (decode_rune _) as [rr w]. inversion H; subst. eexists; split; [reflexivity|cbn [l_pos]; lia].
Qed.

(* every run of skipSpace's loop started at cursor a ends at cursor e *)
Definition skip_to (a e : Z) : Prop := forall q fuel r, l_pos q = a -> skip_space_loop inp n fuel q = Ok r -> l_pos r = e.

Lemma isSpace_EOL ch : gen_isSpace ch = true -> gen_isSpaceEOL ch = true.
Proof. (* by value, whatever the spelling of the three predicates *)
  unfold gen_isSpaceEOL, gen_isSpace, gen_isEndOfLine. lia. Qed.
Lemma isEndOfLine_EOL ch : gen_isEndOfLine ch = true -> gen_isSpaceEOL ch = true.
Proof. unfold gen_isSpaceEOL, gen_isSpace, gen_isEndOfLine. lia. Qed.

Lemma skip_step l ch l1 e : next inp n l = Ok (ch, l1) -> gen_isSpaceEOL ch = true -> skip_to (l_pos l1) e -> skip_to (l_pos l) e.
Proof.
  intros Hn Hs Hk q fuel r Eq H. destruct fuel as [|f]; [discriminate|]. cbn [skip_space_loop] in H.
  destruct (next_pos l ch l1 q Hn Eq) as (q1 & Hq & Ep). rewrite Hq in H. cbn [bind] in H. rewrite Hs in H.
  exact (Hk q1 f r Ep H).
Qed.
Lemma skip_stop l ch l1 : next inp n l = Ok (ch, l1) -> gen_isSpaceEOL ch = false -> skip_to (l_pos l) (l_pos l1).
Proof.
  intros Hn Hs q fuel r Eq H. destruct fuel as [|f]; [discriminate|]. cbn [skip_space_loop] in H.
  destruct (next_pos l ch l1 q Hn Eq) as (q1 & Hq & Ep). rewrite Hq in H. cbn [bind] in H. rewrite Hs in H. inversion H; subst. exact Ep.
Qed.

(* lexHeaderParam's type loop: skipSpace restarted at lastNonSpace stops where the loop stopped *)
Lemma header_type_loop_skip f : forall lns l lns' l',
  (forall e, skip_to (l_pos l) e -> skip_to lns e) ->
  header_type_loop inp n base f lns l = Ok (inr (lns', l')) -> skip_to lns' (l_pos l').
Proof.
  induction f as [|f IH]; intros lns l lns' l' Hsp H; [discriminate|]. cbn [header_type_loop] in H.
  destruct (next inp n l) as [[ch l1]| | | | |] eqn:En; cbn [bind] in H; try discriminate.
  destruct ((ch =? 61) || (ch =? 125)) eqn:C.
  - inversion H; subst. apply Hsp. apply (skip_stop l ch l' En).
    apply Bool.orb_true_iff in C. destruct C as [C|C]; apply Z.eqb_eq in C; subst ch; vm_compute; reflexivity.
  - destruct (ch =? eof); [destruct (errorf _ _ _); cbn [bind] in H; discriminate|].
    destruct (negb (gen_isSpace ch)) eqn:Cs.
    + apply (IH _ _ _ _ (fun e He => He) H).
    + apply Bool.negb_false_iff in Cs. apply (IH _ _ _ _ (fun e He => Hsp e (skip_step l ch l1 e En (isSpace_EOL ch Cs) He)) H).
Qed.
End Skip.

Section Det.
Variable ul ud : Z -> bool.
Variable pre r1 r2 : bstr.
Variable base : Z.
Notation inp1 := (pre ++ r1).
Notation inp2 := (pre ++ r2).
Notation n1 := (Z.of_nat (length (pre ++ r1))).
Notation n2 := (Z.of_nat (length (pre ++ r2))).
Notation h := (Z.of_nat (length pre)).
Notation live := (live h).

Lemma lex_header_param_tracks l :
  tracks (fun _ => True) (live m_header) True (lex_header_param ul ud inp1 n1 base l) (lex_header_param ul ud inp2 n2 base l).
Proof.
  pose proof (h_le1 pre r1). pose proof kw_lens. unfold lex_header_param.
  apply (tr_has_prefix pre r1 r2 _ _ _ header_param_kw (l_pos l)
           (fun bb => if negb bb then errorf base e_header_kw l else _) (fun bb => if negb bb then errorf base e_header_kw l else _)).
  intros bb Hkw. destruct bb; [cbn [negb]|apply errorf_live].
  step next_tracks as [q l1] F1.
  assert (E2 : tracks (emit_fact inp1 (if q =? 63 then l1 else backup l1)) (fun _ => l_pos (if q =? 63 then l1 else backup l1) <= h) True
                 (if q =? 63 then emit inp1 n1 base itemHeaderOptionalParam l1 else emit inp1 n1 base itemHeaderParam (backup l1))
                 (if q =? 63 then emit inp2 n2 base itemHeaderOptionalParam l1 else emit inp2 n2 base itemHeaderParam (backup l1)))
    by (destruct (q =? 63); apply emit_tracks).
  step E2 as l2 F2. step skip_space_tracks as l3 F3.
  step alnum_loop_tracks as l4 F4. step emit_tracks as l5 F5.
  step skip_space_tracks as l6 F6. step next_tracks as [c l7] F7. branch; [apply errorf_live|].
  step emit_tracks as l8 F8. step skip_space_tracks as l9 F9.
  step header_type_loop_tracks as [e|[lns l9']] Fh eqn:Eh;
    [apply tr_dead, Fh|].
  step emit_tracks as l10 F10. step skip_space_tracks as l11 F11 eqn:E11.
  apply tr_ret; [exact I|]. intros [Hb _].
  (* skipSpace, restarted at lastNonSpace, stops where the scan of the type stopped *)
  unfold skip_space in E11. destruct (skip_space_loop inp1 n1 _ l10) as [r| | | | |] eqn:Es; try discriminate E11. inversion E11; subst l11; clear E11.
  assert (Hr : l_pos r = l_pos l9').
  { apply (fun Hp => header_type_loop_skip _ _ _ _ _ _ _ (fun e He => He) Eh l10 _ r Hp Es). destruct (q =? 63); fin. }
  destruct (q =? 63); fin.
Qed.

End Det.
