(* Budget facts for the expression parser model (Model/ExprParser.v) in the form the C17 body
   round trip uses them.

   1. Fuel monotonicity, as equations: a run that does not end in PFuel returns the same result
      under every larger fuel ([parse_expr_mono], [parse_print_mono]).  These are corollaries of
      Proofs/ExprParserFuel.v ([parse_expr_le], [parse_print_le]: the same induction over every
      loop of Section Body, stated with [le_res]).

   2. The entry point's budget [expr_fuel ts] = |ts| + 8 never runs out, on ANY item list
      ([parse_expr_fuel_enough]).  Proofs/ExprTotal.v proves more (no crash, kap conserved) but
      needs every item to be well formed ([twf]); here nothing is assumed about the items: a
      crash (slice out of range on a malformed item) or an error is simply not PFuel.  The
      argument is the same consumption measure [mu] of Proofs/ParserMeasure.v, with the light
      invariant peekCount <= 2.

   3. [expr_fuel_ok]: the budget contract of the command round trip (Proofs/CmdRoundtrip.v,
      hypothesis efuel_ok), without hypothesis. *)
From Soy Require Import Model.Bytes Model.Ast Model.Token Model.NumLit Model.Quote Model.ExprParser Model.Parser.
From Soy Require Import Generated.Tables Proofs.ParserMeasure Proofs.ExprTotal Proofs.ExprParserRules Proofs.ExprParserFuel.
From Coq Require Import ZifyBool Lia List.
Open Scope N_scope.

Definition wle (w w' : N -> pst -> presult node) : Prop :=
  forall prec st r, w prec st = r -> r <> PFuel -> w' prec st = r.

(* le_res as an implication between equations *)
Lemma le_res_eq {A} (x x' r : presult A) : le_res x x' -> x = r -> r <> PFuel -> x' = r.
Proof. intros [F|F]; congruence. Qed.

Lemma le_res_wle (w w' : N -> pst -> presult node) :
  (forall p st, le_res (w p st) (w' p st)) <-> wle w w'.
Proof.
  split.
  - intros H prec st r. apply le_res_eq, H.
  - intros H p st. destruct (w p st) as [a s|t c s|m|] eqn:E; [right|right|right|left; reflexivity];
      symmetry; apply (H p st _ E); discriminate.
Qed.

Theorem parse_expr_mono : forall f f' prec st r,
  (f <= f')%nat -> parse_expr f prec st = r -> r <> PFuel -> parse_expr f' prec st = r.
Proof. intros f f' prec st r Hle. apply le_res_eq, parse_expr_le, Hle. Qed.

Lemma parse_expr_wle f f' : (f <= f')%nat -> wle (parse_expr f) (parse_expr f').
Proof. intros Hle prec st r. apply parse_expr_mono. exact Hle. Qed.

Theorem parse_print_mono : forall f f' p st r,
  (f <= f')%nat -> parse_print f p st = r -> r <> PFuel -> parse_print f' p st = r.
Proof. intros f f' p st r Hle. apply le_res_eq, parse_print_le, Hle. Qed.

(* the loops of Section Body, in the same form *)
Lemma expr_loop_mono w w' lf lf' prec n st r : wle w w' -> (lf <= lf')%nat ->
  expr_loop w lf prec n st = r -> r <> PFuel -> expr_loop w' lf' prec n st = r.
Proof. intros Hw Hle. apply le_res_eq, expr_loop_le; [apply le_res_wle, Hw | exact Hle]. Qed.
Lemma parse_expr_body_mono w w' lf lf' prec st r : wle w w' -> (lf <= lf')%nat ->
  parse_expr_body w lf prec st = r -> r <> PFuel -> parse_expr_body w' lf' prec st = r.
Proof. intros Hw Hle. apply le_res_eq, parse_expr_body_le; [apply le_res_wle, Hw | exact Hle]. Qed.
Lemma directive_args_loop_mono w w' lf lf' args st r : wle w w' -> (lf <= lf')%nat ->
  directive_args_loop w lf args st = r -> r <> PFuel -> directive_args_loop w' lf' args st = r.
Proof. intros Hw Hle. apply le_res_eq, directive_args_loop_le; [apply le_res_wle, Hw | exact Hle]. Qed.
Lemma print_loop_mono w w' lf lf' p e dirs st r : wle w w' -> (lf <= lf')%nat ->
  print_loop w lf p e dirs st = r -> r <> PFuel -> print_loop w' lf' p e dirs st = r.
Proof. intros Hw Hle. apply le_res_eq, print_loop_le; [apply le_res_wle, Hw | exact Hle]. Qed.

Notation mu := ParserMeasure.mu.
Notation pk2 p := (p_peek p <= 2)%nat.

(* what [next] does to the measure; no condition on the items *)
Record lrel (p : pst) (t : tok) (p' : pst) : Prop := {
  lr_peek1 : (p_peek p' <= 1)%nat;
  lr_mu_nz : t_typ t <> 0 -> mu p = S (mu p');
  lr_mu : (mu p' <= mu p <= S (mu p'))%nat;
  lr_bk_peek : pk2 (p_backup p');
  lr_bk_mu : mu (p_backup p') = mu p;
}.

Ltac psimp := unfold ParserMeasure.mu, ParserMeasure.stream, p_backup;
              cbn [p_rest p_tok0 p_tok1 p_peek p_recv fst snd tok_at].

Lemma p_next_lrel p : pk2 p -> lrel p (fst (p_next p)) (snd (p_next p)).
Proof.
  intros Hpk. destruct p as [rest t0 t1 pk rc]. cbn [p_peek] in Hpk.
  unfold p_next; cbn [p_peek].
  destruct pk as [|[|[|pk]]]; [| | |lia].
  - unfold recv; cbn [p_rest].
    destruct rest as [|t r]; cbn [fst snd p_rest p_tok0 p_tok1 p_peek p_recv].
    + constructor; psimp; try lia.
      * intros H; exfalso; apply H; reflexivity.
      * reflexivity.
    + pose proof (live_cons t r) as (L1 & L2 & L3).
      constructor; psimp; auto; lia.
  - pose proof (live_cons t0 rest) as (L1 & L2 & L3).
    constructor; psimp; auto; lia.
  - pose proof (live_cons t1 (t0 :: rest)) as (L1 & L2 & L3).
    constructor; psimp; auto; lia.
Qed.

Lemma p_peek_lrel p : pk2 p ->
  (1 <= p_peek (snd (p_peek_tok p)) <= 2)%nat /\ mu (snd (p_peek_tok p)) = mu p
  /\ fst (p_next (snd (p_peek_tok p))) = fst (p_peek_tok p).
Proof.
  intros Hpk. destruct p as [rest t0 t1 pk rc]. cbn [p_peek] in Hpk.
  unfold p_peek_tok; cbn [p_peek].
  destruct pk as [|[|[|pk]]]; [| | |lia].
  - unfold recv; cbn [p_rest].
    destruct rest as [|t r]; cbn [fst snd p_rest p_tok0 p_tok1 p_peek p_recv]; unfold p_next; psimp;
      (split; [lia|split; reflexivity]).
  - unfold p_next; psimp. split; [lia|split; reflexivity].
  - unfold p_next; psimp. split; [lia|split; reflexivity].
Qed.

(* returns (in a state with peekCount <= 2 satisfying Q), or fails, or crashes: anything but PFuel *)
Definition npost {A} (Q : A -> pst -> Prop) (r : presult A) : Prop :=
  match r with
  | POk a p' => pk2 p' /\ Q a p'
  | PErr _ _ _ => True
  | PCrash _ => True
  | PFuel => False
  end.

Lemma npost_bind {A B} (Q1 : A -> pst -> Prop) (Q : B -> pst -> Prop) x f :
  npost Q1 x -> (forall a p', pk2 p' -> Q1 a p' -> npost Q (f a p')) -> npost Q (pbind x f).
Proof. destruct x as [a p'|t c p'|m|]; cbn; intros H K; auto. destruct H as (H1 & H2). apply K; auto. Qed.

Lemma npost_weaken {A} (Q1 Q : A -> pst -> Prop) r :
  npost Q1 r -> (forall a p', pk2 p' -> Q1 a p' -> Q a p') -> npost Q r.
Proof. destruct r; cbn; intros H K; auto. destruct H as (H1 & H2). auto. Qed.

Lemma npost_errorf {A} (Q : A -> pst -> Prop) c p : npost Q (p_errorf c p).
Proof. exact I. Qed.
Lemma npost_unexpected {A} (Q : A -> pst -> Prop) t p : npost Q (p_unexpected t p).
Proof. unfold p_unexpected. destruct (_ =? _); exact I. Qed.

Lemma npost_not_fuel {A} (Q : A -> pst -> Prop) r : npost Q r -> r <> PFuel.
Proof. intros H E. rewrite E in H. exact H. Qed.

Ltac pnext p t p1 R :=
  let E := fresh "E" in
  match goal with Hi : pk2 p |- _ => pose proof (p_next_lrel p Hi) as R end;
  destruct (p_next p) as [t p1] eqn:E; cbn [fst snd] in R.
Ltac dnrel R := destruct R as [?Rpk1 ?Rnz ?Rmu ?Rbp ?Rbm].
Ltac tnz H Hnz := match type of H with t_typ ?t = _ =>
  assert (Hnz : t_typ t <> 0) by (rewrite H; vm_compute; intro; discriminate) end.
Ltac fin := cbn [npost]; (split; [solve [auto|lia]|cbn beta; lia]).

Lemma p_expect_npost typ p :
  pk2 p -> typ <> 0 -> npost (fun _ p' => mu p = S (mu p')) (p_expect typ p).
Proof.
  intros Hi Hz. unfold p_expect. pnext p t p1 R. dnrel R.
  destruct (N.eqb_spec (t_typ t) typ) as [Et|Et].
  - assert (t_typ t <> 0) by congruence. fin.
  - apply npost_unexpected.
Qed.

Section Level.
Variable w : N -> pst -> presult node.
Variable L : nat.
Hypothesis Hw : forall prec p, pk2 p -> (mu p < L)%nat -> npost (fun _ p' => (mu p' < mu p)%nat) (w prec p).

Lemma parse_ternary_n cond p :
  pk2 p -> (mu p < L)%nat -> npost (fun _ p' => (mu p' < mu p)%nat) (parse_ternary w cond p).
Proof.
  intros Hi Hm. unfold parse_ternary.
  eapply npost_bind; [apply Hw; auto|]. intros n1 p1 Hi1 Hq1. cbn beta in Hq1.
  eapply npost_bind; [apply p_expect_npost; auto; vm_compute; intro; discriminate|].
  intros tk p2 Hi2 Hq2. cbn beta in Hq2.
  eapply npost_bind; [apply Hw; auto; lia|]. intros n2 p3 Hi3 Hq3. cbn beta in Hq3. fin.
Qed.

Lemma expr_loop_n : forall lf prec n p,
  pk2 p -> (mu p < L)%nat -> (mu p < lf)%nat ->
  npost (fun _ p' => (mu p' <= mu p)%nat) (expr_loop w lf prec n p).
Proof.
  induction lf as [|lf IH]; intros prec n p Hi Hm Hf; [lia|].
  cbn [expr_loop]. pnext p t p1 R. dnrel R.
  destruct (negb (is_binary_op (t_typ t)) || (prec_of (t_typ t) <? prec)) eqn:Ec.
  - destruct ((prec =? 0) && (t_typ t =? pk_itemTernIf)) eqn:Et.
    + assert (Ety : t_typ t = pk_itemTernIf) by lia. tnz Ety Hnz.
      eapply npost_weaken; [apply parse_ternary_n; lia|]. intros; cbn beta in *; lia.
    + fin.
  - assert (Hbin : is_binary_op (t_typ t) = true) by (destruct (is_binary_op (t_typ t)); cbn in Ec; auto; discriminate).
    apply is_binary_op_nz in Hbin.
    eapply npost_bind; [apply Hw; lia|]. intros n2 p2 Hi2 Hq2. cbn beta in Hq2.
    destruct (new_binary_op t n n2).
    + eapply npost_weaken; [apply IH; auto; lia|]. intros; cbn beta in *; lia.
    + apply npost_errorf.
Qed.

Lemma data_ref_loop_n : forall lf pos key acc p,
  pk2 p -> (mu p < L)%nat -> (mu p < lf)%nat ->
  npost (fun _ p' => (mu p' <= mu p)%nat) (data_ref_loop w lf pos key acc p).
Proof.
  induction lf as [|lf IH]; intros pos key acc p Hi Hm Hf; [lia|].
  cbn [data_ref_loop]. pnext p t p1 R. dnrel R. cbv zeta.
  destruct ((t_typ t =? pk_itemQuestionDotIdent) || (t_typ t =? pk_itemDotIdent)) eqn:E1.
  { assert (Hnz : t_typ t <> 0) by (intro X; rewrite X in E1; vm_compute in E1; discriminate).
    destruct (slice_from _ (t_val t)) as [v|]; [|exact I].
    eapply npost_weaken; [apply IH; lia|]. intros; cbn beta in *; lia. }
  destruct ((t_typ t =? pk_itemQuestionDotIndex) || (t_typ t =? pk_itemDotIndex)) eqn:E2.
  { assert (Hnz : t_typ t <> 0) by (intro X; rewrite X in E2; vm_compute in E2; discriminate).
    destruct (slice_from _ (t_val t)) as [v|]; [|exact I].
    destruct (parse_int 10 v).
    - eapply npost_weaken; [apply IH; lia|]. intros; cbn beta in *; lia.
    - apply npost_errorf. }
  destruct ((t_typ t =? pk_itemQuestionKey) || (t_typ t =? pk_itemLeftBracket)) eqn:E3.
  { assert (Hnz : t_typ t <> 0) by (intro X; rewrite X in E3; vm_compute in E3; discriminate).
    eapply npost_bind; [apply Hw; lia|]. intros e p2 Hi2 Hq2. cbn beta in Hq2.
    eapply npost_bind; [apply p_expect_npost; auto; vm_compute; intro; discriminate|].
    intros tk p3 Hi3 Hq3. cbn beta in Hq3.
    eapply npost_weaken; [apply IH; auto; lia|]. intros; cbn beta in *; lia. }
  fin.
Qed.

Lemma list_loop_n : forall lf pos items p,
  pk2 p -> (mu p < L)%nat -> (mu p < lf)%nat ->
  npost (fun _ p' => (mu p' <= mu p)%nat) (list_loop w lf pos items p).
Proof.
  induction lf as [|lf IH]; intros pos items p Hi Hm Hf; [lia|].
  cbn [list_loop].
  eapply npost_bind; [apply Hw; auto|]. intros e p1 Hi1 Hq1. cbn beta in Hq1. cbv zeta.
  pnext p1 nx p2 R. dnrel R.
  destruct (N.eqb_spec (t_typ nx) pk_itemRightBracket) as [Ea|Ea].
  { tnz Ea Hnz. fin. }
  destruct (N.eqb_spec (t_typ nx) pk_itemComma) as [Eb|Eb]; cbn [negb].
  - tnz Eb Hnz. eapply npost_weaken; [apply IH; lia|]. intros; cbn beta in *; lia.
  - apply npost_unexpected.
Qed.

Lemma map_loop_n : forall lf pos items key p,
  pk2 p -> (mu p < L)%nat -> (mu p < lf)%nat ->
  npost (fun _ p' => (mu p' <= mu p)%nat) (map_loop w lf pos items key p).
Proof.
  induction lf as [|lf IH]; intros pos items key p Hi Hm Hf; [lia|].
  cbn [map_loop].
  eapply npost_bind; [apply Hw; auto|]. intros e p1 Hi1 Hq1. cbn beta in Hq1. cbv zeta.
  pnext p1 nx p2 R. dnrel R.
  destruct (N.eqb_spec (t_typ nx) pk_itemRightBracket) as [Ea|Ea].
  { tnz Ea Hnz. fin. }
  destruct (N.eqb_spec (t_typ nx) pk_itemComma) as [Eb|Eb]; cbn [negb].
  - tnz Eb Hnz.
    eapply npost_bind; [apply p_expect_npost; [lia|vm_compute; intro; discriminate]|].
    intros kt p3 Hi3 Hq3. cbn beta in Hq3.
    destruct (unquote_string (t_val kt)).
    + eapply npost_bind; [apply p_expect_npost; auto; vm_compute; intro; discriminate|].
      intros ct p4 Hi4 Hq4. cbn beta in Hq4.
      eapply npost_weaken; [apply IH; auto; lia|]. intros; cbn beta in *; lia.
    + apply npost_errorf.
  - apply npost_unexpected.
Qed.

Lemma global_loop_n : forall lf pos name p0 nx p,
  lrel p0 nx p -> (mu p0 < lf)%nat ->
  npost (fun _ p' => (mu p' <= mu p0)%nat) (global_loop lf pos name nx p).
Proof.
  induction lf as [|lf IH]; intros pos name p0 nx p R Hf; [lia|].
  cbn [global_loop]. pose proof R as R0. dnrel R.
  destruct (N.eqb_spec (t_typ nx) pk_itemDotIdent) as [Ea|Ea].
  - tnz Ea Hnz. assert (Hi : pk2 p) by lia. pnext p nx' p1 R'.
    eapply npost_weaken; [apply (IH pos (name ++ t_val nx) p nx' p1); auto; lia|]. intros; cbn beta in *; lia.
  - fin.
Qed.

Lemma func_loop_n : forall lf pos name args p,
  pk2 p -> (mu p < L)%nat -> (mu p < lf)%nat ->
  npost (fun _ p' => (mu p' <= mu p)%nat) (func_loop w lf pos name args p).
Proof.
  induction lf as [|lf IH]; intros pos name args p Hi Hm Hf; [lia|].
  cbn [func_loop].
  eapply npost_bind; [apply Hw; auto|]. intros e p1 Hi1 Hq1. cbn beta in Hq1. cbv zeta.
  pnext p1 nx p2 R. dnrel R.
  destruct (N.eqb_spec (t_typ nx) pk_itemComma) as [Ea|Ea].
  { tnz Ea Hnz. eapply npost_weaken; [apply IH; lia|]. intros; cbn beta in *; lia. }
  destruct (N.eqb_spec (t_typ nx) pk_itemRightParen) as [Eb|Eb].
  - tnz Eb Hnz. fin.
  - apply npost_unexpected.
Qed.

Variable lf : nat.
Hypothesis Hlf : (L <= lf)%nat.

Lemma new_function_node_n t p :
  pk2 p -> (mu p < L)%nat ->
  npost (fun _ p' => (mu p' <= mu p)%nat) (new_function_node w lf t p).
Proof.
  intros Hi Hm. unfold new_function_node.
  pose proof (p_peek_lrel p Hi) as K.
  destruct (p_peek_tok p) as [pk p1] eqn:Ep. cbn [fst snd] in K. destruct K as (Kpk & Km & Kn).
  assert (Hi1 : pk2 p1) by lia.
  destruct (N.eqb_spec (t_typ pk) pk_itemRightParen) as [Ea|Ea].
  - tnz Ea Hnz. pnext p1 t2 p2 R. cbn [fst] in Kn. rewrite Kn in R. dnrel R. fin.
  - eapply npost_weaken; [apply func_loop_n; lia|]. intros; cbn beta in *; lia.
Qed.

Lemma parse_map_literal_n pos first p :
  pk2 p -> (mu p < L)%nat ->
  npost (fun _ p' => (mu p' <= mu p)%nat) (parse_map_literal w lf pos first p).
Proof.
  intros Hi Hm. unfold parse_map_literal.
  destruct first; try apply npost_errorf.
  apply map_loop_n; auto; lia.
Qed.

Lemma parse_list_or_map_n t p :
  pk2 p -> (mu p < L)%nat ->
  npost (fun _ p' => (mu p' <= mu p)%nat) (parse_list_or_map w lf t p).
Proof.
  intros Hi Hm. unfold parse_list_or_map. pnext p nx p1 R. dnrel R.
  destruct (N.eqb_spec (t_typ nx) pk_itemColon) as [Ea|Ea].
  { tnz Ea Hnz.
    eapply npost_bind; [apply p_expect_npost; [lia|vm_compute; intro; discriminate]|].
    intros tk p2 Hi2 Hq2. cbn beta in Hq2. fin. }
  destruct (N.eqb_spec (t_typ nx) pk_itemRightBracket) as [Eb|Eb].
  { tnz Eb Hnz. fin. }
  eapply npost_bind; [apply Hw; auto; lia|]. intros first p2 Hi2 Hq2. cbn beta in Hq2.
  cbv zeta. pnext p2 d p3 R'. dnrel R'.
  destruct (N.eqb_spec (t_typ d) pk_itemColon) as [Ec|Ec].
  { tnz Ec Hnz. eapply npost_weaken; [apply parse_map_literal_n; lia|]. intros; cbn beta in *; lia. }
  destruct (N.eqb_spec (t_typ d) pk_itemComma) as [Ed|Ed].
  { tnz Ed Hnz. eapply npost_weaken; [apply list_loop_n; lia|]. intros; cbn beta in *; lia. }
  destruct (N.eqb_spec (t_typ d) pk_itemRightBracket) as [Ee|Ee].
  { tnz Ee Hnz. fin. }
  apply npost_unexpected.
Qed.

Lemma new_value_node_n t p :
  pk2 p -> (mu p < L)%nat ->
  npost (fun _ p' => (mu p' <= mu p)%nat) (new_value_node w lf t p).
Proof.
  intros Hi Hm. unfold new_value_node. cbv zeta.
  destruct (t_typ t =? pk_itemNull); [fin|].
  destruct (t_typ t =? pk_itemBool); [fin|].
  destruct (t_typ t =? pk_itemInteger).
  { match goal with |- context [match ?r with Some _ => _ | None => _ end] => destruct r end;
      [fin|apply npost_errorf]. }
  destruct (t_typ t =? pk_itemFloat).
  { destruct (parse_float (t_val t)); [fin|].
    destruct (parse_float_round (t_val t)); [fin|apply npost_errorf|apply npost_errorf]. }
  destruct (t_typ t =? pk_itemString).
  { destruct (unquote_string (t_val t)); [fin|apply npost_errorf]. }
  destruct (t_typ t =? pk_itemLeftBracket); [apply parse_list_or_map_n; auto|].
  destruct (t_typ t =? pk_itemDollarIdent).
  { unfold parse_data_ref. destruct (slice_from 1 (t_val t)) as [v|]; [|exact I].
    apply data_ref_loop_n; auto; lia. }
  destruct (t_typ t =? pk_itemIdent).
  { pnext p nx p1 R. pose proof R as R0. dnrel R.
    destruct (N.eqb_spec (t_typ nx) pk_itemLeftParen) as [Ea|Ea]; cbn [negb].
    - tnz Ea Hnz. eapply npost_weaken; [apply new_function_node_n; lia|]. intros; cbn beta in *; lia.
    - eapply global_loop_n; eauto; lia. }
  apply npost_errorf.
Qed.

Lemma parse_first_term_n p :
  pk2 p -> (mu p <= L)%nat ->
  npost (fun _ p' => (mu p' < mu p)%nat) (parse_first_term w lf p).
Proof.
  intros Hi Hm. unfold parse_first_term. pnext p t p1 R. dnrel R.
  destruct (is_unary_op (t_typ t)) eqn:Eu.
  { apply is_unary_op_nz in Eu.
    eapply npost_bind; [apply Hw; lia|]. intros n p2 Hi2 Hq2. cbn beta in Hq2.
    destruct (new_unary_op t n); [fin|apply npost_errorf]. }
  destruct (N.eqb_spec (t_typ t) pk_itemLeftParen) as [Ea|Ea].
  { tnz Ea Hnz.
    eapply npost_bind; [apply Hw; lia|]. intros n p2 Hi2 Hq2. cbn beta in Hq2.
    eapply npost_bind; [apply p_expect_npost; auto; vm_compute; intro; discriminate|].
    intros tk p3 Hi3 Hq3. cbn beta in Hq3. fin. }
  destruct (is_value (t_typ t)) eqn:Ev.
  { apply is_value_nz in Ev.
    eapply npost_weaken; [apply new_value_node_n; lia|]. intros; cbn beta in *; lia. }
  apply npost_unexpected.
Qed.

Lemma parse_expr_body_n prec p :
  pk2 p -> (mu p <= L)%nat ->
  npost (fun _ p' => (mu p' < mu p)%nat) (parse_expr_body w lf prec p).
Proof.
  intros Hi Hm. unfold parse_expr_body.
  eapply npost_bind; [apply parse_first_term_n; auto|]. intros n p1 Hi1 Hq1. cbn beta in Hq1.
  eapply npost_weaken; [apply expr_loop_n; auto; lia|]. intros; cbn beta in *; lia.
Qed.
End Level.

(* fuel mu + 1 suffices, on every state with peekCount <= 2 *)
Theorem parse_expr_n : forall f prec p,
  pk2 p -> (mu p < f)%nat -> npost (fun _ p' => (mu p' < mu p)%nat) (parse_expr f prec p).
Proof.
  induction f as [|f IH]; intros prec p Hi Hm; [lia|].
  cbn [parse_expr]. apply parse_expr_body_n with (L := f); auto; lia.
Qed.

(* a successful run leaves peekCount <= 2, whatever its budget was *)
Lemma parse_expr_inv f prec p e p' : pk2 p -> parse_expr f prec p = POk e p' -> pk2 p'.
Proof.
  intros Hi E. set (F := Nat.max f (S (mu p))).
  pose proof (parse_expr_n F prec p Hi ltac:(unfold F; lia)) as HN.
  rewrite (parse_expr_mono f F prec p _ ltac:(unfold F; lia) E ltac:(discriminate)) in HN. apply HN.
Qed.

Theorem parse_expr_not_fuel f prec p : pk2 p -> (mu p < f)%nat -> parse_expr f prec p <> PFuel.
Proof. intros Hi Hm. exact (npost_not_fuel _ _ (parse_expr_n f prec p Hi Hm)). Qed.

Lemma parse_expr_fuel_enough : forall ts prec, parse_expr (expr_fuel ts) prec (pst_init ts) <> PFuel.
Proof.
  intros ts prec. apply parse_expr_not_fuel.
  - cbn [pst_init p_peek]. lia.
  - pose proof (mu_init ts). unfold expr_fuel. lia.
Qed.

Theorem expr_fuel_ok : forall ts e rest,
  Parses 0 ts e rest -> exists p', parse_expr (expr_fuel ts) 0 (pst_init ts) = POk e p'.
Proof.
  intros ts e rest HP.
  destruct (stream_init ts) as (Hs & Hinv).
  destruct (HP (pst_init ts) Hs Hinv) as (st' & _ & _ & f0 & Hf0).
  exists st'.
  set (F := Nat.max f0 (expr_fuel ts)).
  assert (HF : parse_expr F 0 (pst_init ts) = POk e st') by (apply (Hf0 F F); unfold F; lia).
  assert (Hle : (expr_fuel ts <= F)%nat) by (unfold F; lia).
  pose proof (parse_expr_mono (expr_fuel ts) F 0 (pst_init ts) _ Hle eq_refl (parse_expr_fuel_enough ts 0)) as M.
  rewrite HF in M. symmetry. exact M.
Qed.

Print Assumptions parse_expr_mono.
Print Assumptions parse_print_mono.
Print Assumptions parse_expr_fuel_enough.
Print Assumptions expr_fuel_ok.
