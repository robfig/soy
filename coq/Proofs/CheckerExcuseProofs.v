(* C07, last clause, in full: rendering a template of an accepted bundle never misses a scope
   lookup on a name that nothing binds -- for EVERY accepted bundle: calls that omit optional
   params, data="all", data="$e", $ij, recursion; no hypothesis on the data.

   What a callee may assume is exactly this: the variables of the enclosing {let}s and loops and
   the loop counters are bound; a declared param may be absent (then it reads as undefined, which
   is how optional params and the map behind data="$e" work).  So the statement is about the
   walker [walkx] of Model/CheckerRun.v, which does not count the miss of a DECLARED param of the
   template being executed: its counter stays 0 ([walkx_ok], [accepted_no_unbound_name]).
   Proofs/CheckerExcuseRel.v shows that [walkx] is [walk] up to the counter.

   Method: the walker lemmas of Proofs/CheckerInterpProofs.v with no param known to be bound
   ([qs = []], so the invariant is [good [] G L]) and no [calls_total]; the head lookup of a data
   reference either finds its key or is excused. *)
From Soy Require Import Model.Bytes Model.Num Model.Values Model.Outcome Model.Ast Model.Escape Model.Directives
  Model.Print Generated.Tables Model.Interp Model.RefView Model.Checker Model.CheckerRun Spec.Wf
  Proofs.ValueProofs Proofs.ConvertProofs Proofs.InterpLogic Proofs.CheckerProofs Proofs.CheckerInterpProofs.
Open Scope N_scope.

Section Link.
Variable cf : cfg.
Let T := r_templates (c_reg cf).
Let tparams (t : template) := map fst (t_params t).
Let X : rt -> bool := fun _ => true.
Let HX : hereditary X := true_hereditary.

(* the registry: every template body is well-formed under its own params *)
Hypothesis Hreg : forall t, In t T -> rt_ok cf X (tparams t) [] [] (view (t_node t)).

Lemma walk_body_dataref_miss (w : node -> M value) p key acc st :
  bstr_eqb key Interp.s_ij = false -> sc_lookup (ctx st) key = None ->
  walk_body cf w (NDataRef p key acc) st = dataref_access w acc VUndef (bump_unbound (set_cur st p)).
Proof.
  intros Hij Hl. unfold walk_body. cbn [walk_node pos_of]. rewrite Hij.
  unfold mbind at 1. cbn [modify]. unfold mbind at 1. unfold m_lookup. rewrite ctx_set_cur, Hl. reflexivity.
Qed.

Theorem walkx_ok fuel : forall ps, w_ok cf X ps [] (walkx cf ps fuel).
Proof.
  induction fuel as [|f IH]; intros ps G L n H.
  - intros st r st' Hp Hr. cbn in Hr. inversion Hr; subst. split; [reflexivity|]. intros v Hv. discriminate.
  - destruct (is_call n) eqn:Hc.
    + destruct n; try discriminate Hc. cbn [walkx]. unfold post. cbn [view rt_kind].
      change (fun (_ : value) (_ : scope) => True) with (@anyQ value).
      eapply keeps_bind0; [apply good_closed | apply keeps_modify; intros; split; reflexivity | intros u].
      fold T. destruct (find_template T name) as [callee|] eqn:Hfind; [|apply keeps_fail].
      eapply (call_ok cf X HX ps [] (walkx cf ps f) (IH ps) G L _ []); [exact H | | intros k []].
      apply IH. apply Hreg. eapply find_template_In. exact Hfind.
    + pose proof (walk_body_ok cf X HX ps [] (walkx cf ps f) (IH ps) G L n Hc H) as Hb.
      intros st r st' Hp Hr.
      assert (Heq : walkx cf ps (S f) n st =
                    if is_excused ps n (ctx st)
                    then (let '(r, st') := walk_body cf (walkx cf ps f) n st in (r, uncount st'))
                    else walk_body cf (walkx cf ps f) n st)
        by (destruct n; try discriminate Hc; reflexivity).
      rewrite Heq in Hr. clear Heq. destruct (is_excused ps n (ctx st)) eqn:E.
      * (* the lookup misses on a declared param: bumped once, taken back at the end *)
        destruct n; try discriminate E. cbn [is_excused] in E.
        apply andb_true_iff in E as [E Hlk]. apply andb_true_iff in E as [Hij _]. apply negb_true_iff in Hij.
        destruct (sc_lookup (ctx st) key) eqn:Hl; [discriminate|].
        rewrite (walk_body_dataref_miss _ _ _ _ _ Hij Hl) in Hr.
        destruct (dataref_access (walkx cf ps f) access VUndef (bump_unbound (set_cur st p))) as [r1 st1] eqn:Hrun.
        injection Hr as <- <-.
        cbn [view] in H; apply rt_ok_kids in H; [|exact HX|reflexivity|discriminate]. apply Forall_map_view in H.
        destruct (dataref_access_ok cf X HX ps [] (walkx cf ps f) (IH ps) G L access H VUndef (bump_unbound (set_cur st p)) r1 st1 Hp Hrun) as [Hu Hok].
        split; [cbn in Hu |- *; rewrite Hu; reflexivity|].
        intros v Hv. destruct (Hok v Hv) as [He _]. split; [exact He | exact I].
      * apply (Hb st r st'); [|exact Hr]. split; [exact Hp|].
        destruct n; try exact I. cbn [ref_bound]. intros Hij.
        destruct H as (Hwf & _). cbn [view Wf.wf wf_body] in Hwf. apply andb_true_iff in Hwf as [Hkey _].
        rewrite Hij in Hkey. cbn [orb] in Hkey. apply orb_true_iff in Hkey as [Hk|Hk].
        -- apply (proj1 Hp). right. left. apply contains_In. exact Hk.
        -- cbn [is_excused] in E. change Interp.s_ij with RefView.s_ij in E. rewrite Hij, Hk in E. cbn [negb andb] in E.
           unfold bound. destruct (sc_lookup (ctx st) key); [discriminate | discriminate].
Qed.
End Link.

Theorem accepted_no_unbound_name cf fuel name data_id data cl bl first_id :
  check_registry (c_reg cf) = Accept ->
  registry_shaped (c_reg cf) = true ->
  rr_unbound (render_xc cf fuel name data_id data cl bl first_id) = 0%nat.
Proof.
  intros Hchk Hsh.
  apply check_registry_iff in Hchk; [|apply registry_shaped_loops_ok; exact Hsh].
  assert (Hreg : forall t0, In t0 (r_templates (c_reg cf)) ->
                 rt_ok cf (fun _ => true) (map fst (t_params t0)) [] [] (view (t_node t0))).
  { intros t0 Ht0. unfold wf_registry, wf_templates in Hchk. unfold registry_shaped in Hsh.
    rewrite forallb_forall in Hchk, Hsh. specialize (Hchk t0 Ht0). unfold wf_template, wf_template_node in Hchk.
    apply andb_true_iff in Hchk as [Hwf _]. split; [exact Hwf | auto]. }
  unfold render_xc. destruct (find_template (r_templates (c_reg cf)) name) as [t|] eqn:Hfind; [|reflexivity].
  set (st0 := init_state (sc_enter (new_scope data_id data)) (entry_mode (t_ns_autoescape t)) name cl bl first_id).
  destruct (walkx cf (map fst (t_params t)) fuel (t_node t) st0) as [r st] eqn:Hrun.
  assert (Hu : unbound st = 0%nat).
  { pose proof (walkx_ok cf Hreg fuel (map fst (t_params t)) [] [] (t_node t)
                  (Hreg t (find_template_In _ _ _ Hfind)) st0 r st) as H.
    destruct H as [H _]; [|exact Hrun | exact H].
    subst st0. cbn [init_state ctx]. apply good_enter; [discriminate|]. intros k []. }
  destruct r; cbn [rr_unbound]; try exact Hu.
  destruct (assoc_s name (r_sources (c_reg cf))) as [src|], (assoc_s name (r_files (c_reg cf))) as [file|];
    cbn [rr_unbound]; try exact Hu.
  destruct (line_number src (cur st)); cbn [rr_unbound]; exact Hu.
Qed.
