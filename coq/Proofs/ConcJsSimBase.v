(* C09 — the instrumented JavaScript generator (Generated/JsGenTrace.v, derived
   from the text of Model/JsGen.v over a lens + logger) SIMULATES the model:
   base of the per-definition proof.

   [jsim mt m]: from every state s of the instrumented generator, the outcome of
   mt, seen through the lens, is the outcome of the model's m on the record the
   lens shows of s (a failing run: the same failure).  This file has

     - the laws a lens must satisfy ([jlens_ok]: get-put, get-tick),
     - the simulation of each PRIMITIVE that tablegen rewrites (jret jfail jabort
       jlift jbind jget jmod jtick jblock), by hand,
     - [JSIM x y], the statement for a definition of ANY type built from the
       monad, computed from the two types: equal plain arguments, [jsim]-related
       monadic arguments (the walker w, a children walker), [jsim]-related results,
     - the generic tactics [jsim_def] / [jsim_fix k] that prove such a statement by
       walking both bodies in lockstep (bind, match on the same scrutinee, nested
       fix by induction, calls through the lemmas proved so far and the hypotheses),

   and Generated/JsGenSim.v, regenerated on every run from the list of J-typed
   definitions of Model/JsGen.v, states and proves one lemma per definition with
   them.  No lemma here mentions the text of a non-primitive definition. *)
From Coq Require Import List Arith Bool.
From Soy Require Import Model.Bytes Model.Num Model.Values Model.Outcome Model.Ast Model.JsGen Generated.JsGenTrace.
Import ListNotations.
Open Scope N_scope.

Record jlens_ok (L : jlens) : Prop := {
  l_get_put : forall x s, l_get L (l_put L x s) = x;
  l_get_tick : forall a s, l_get L (l_tick L a s) = l_get L s;
}.

Section Base.
Variable L : jlens.

(* an outcome of the instrumented generator, seen through the lens *)
Definition oproj {A} (r : outcome A * l_St L) : outcome (A * jstate) :=
  match r with
  | (Ok a, s) => Ok (a, l_get L s)
  | (Err e, _) => Err e | (Crash e, _) => Crash e | (Diverge, _) => Diverge | (OutOfFuel, _) => OutOfFuel | (OutOfModel, _) => OutOfModel
  end.

Definition jsim {A} (mt : JT.J L A) (m : J A) : Prop := forall s, oproj (mt s) = m (l_get L s).

Lemma jsim_ret A (x : A) : jsim (JT.jret L x) (jret x).
Proof. intros s. reflexivity. Qed.
Lemma jsim_fail A m : jsim (@JT.jfail L A m) (jfail m).
Proof. intros s. reflexivity. Qed.
Lemma jsim_lift A (o : outcome A) : jsim (JT.jlift L o) (jlift o).
Proof. intros s. destruct o; reflexivity. Qed.
Lemma jsim_abort_oom A : jsim (JT.jabort L (@OutOfModel A)) (fun _ => OutOfModel).
Proof. intros s. reflexivity. Qed.
Lemma jsim_abort_oof A : jsim (JT.jabort L (@OutOfFuel A)) (fun _ => OutOfFuel).
Proof. intros s. reflexivity. Qed.
Lemma jsim_abort_div A : jsim (JT.jabort L (@Diverge A)) (fun _ => Diverge).
Proof. intros s. reflexivity. Qed.
Lemma jsim_abort_crash A e : jsim (JT.jabort L (@Crash A e)) (fun _ => Crash e).
Proof. intros s. reflexivity. Qed.
Lemma jsim_abort_err A e : jsim (JT.jabort L (@Err A e)) (fun _ => Err e).
Proof. intros s. reflexivity. Qed.

Lemma jsim_bind A B (mt : JT.J L A) (m : J A) (ft : A -> JT.J L B) (f : A -> J B) :
  jsim mt m -> (forall x, jsim (ft x) (f x)) -> jsim (JT.jbind L mt ft) (jbind m f).
Proof.
  intros Hm Hf s. unfold JT.jbind, jbind. specialize (Hm s).
  destruct (mt s) as [[a|e|e| | |] s']; cbn [oproj] in Hm; rewrite <- Hm; [apply Hf|reflexivity..].
Qed.

Hypothesis HL : jlens_ok L.

Lemma jsim_get : jsim (JT.jget L) jget.
Proof. intros s. unfold JT.jget, jget. cbn [oproj]. now rewrite (l_get_tick L HL). Qed.
Lemma jsim_mod f : jsim (JT.jmod L f) (jmod f).
Proof. intros s. unfold JT.jmod, jmod. cbn [oproj]. now rewrite (l_get_tick L HL), (l_get_put L HL). Qed.
(* a tick is invisible through the lens *)
Lemma jsim_tick_then A a (mt : JT.J L A) (m : J A) :
  jsim mt m -> jsim (JT.jbind L (JT.jtick L a) (fun _ => mt)) m.
Proof. intros Hm s. unfold JT.jbind, JT.jtick. rewrite Hm. now rewrite (l_get_tick L HL). Qed.

(* state.block: the sub-generator on a fresh record sharing scope and maps; the parent's record comes back *)
Lemma jsim_jblock :
  forall (wt : node -> JT.J L unit) (w : node -> J unit),
    (forall n n', n = n' -> jsim (wt n) (w n')) ->
    forall n n', n = n' -> jsim (JT.jblock L wt n) (jblock w n').
Proof.
  intros wt w Hw n n' <-. unfold JT.jblock, jblock. apply jsim_bind; [apply jsim_get|].
  intros st s0. cbv zeta.
  match goal with |- context [wt n ?s1] => pose proof (Hw n n eq_refl s1) as Hs; rewrite (l_get_put L HL) in Hs;
    destruct (wt n s1) as [[[]|e|e| | |] s_] end;
  cbn [oproj] in Hs; rewrite <- Hs; cbn [oproj]; try reflexivity.
  now rewrite (l_get_put L HL).
Qed.
End Base.
Arguments jsim L {A} mt m.
Arguments oproj L {A} r.

Class JRel (X Y : Type) := jrel : X -> Y -> Prop.
#[global] Instance jrel_J (L : jlens) (A : Type) : JRel (JT.J L A) (J A) | 0 := @jsim L A.
#[global] Instance jrel_fun (X X' Y Y' : Type) (RX : JRel X X') (RY : JRel Y Y') : JRel (X -> Y) (X' -> Y') | 1 :=
  fun f g => forall x x', jrel x x' -> jrel (f x) (g x').
#[global] Instance jrel_eq (A : Type) : JRel A A | 9 := @eq A.

Notation JSIM x y :=
  (ltac:(let t := constr:(jrel x y) in let t := eval cbv [jrel jrel_J jrel_fun jrel_eq] in t in exact t)) (only parsing).

(* the lemmas proved so far, looked up by the head constant of the instrumented side: rebound by
   Generated/JsGenSim.v after every lemma *)
Ltac jsim_db h := fail.

Ltac jsim_head t := lazymatch t with ?f _ => jsim_head f | _ => t end.

Ltac jsim_nth k acc :=
  lazymatch k with
  | O => lazymatch acc with (?x, _) => x end
  | S ?k' => lazymatch acc with (_, ?r) => jsim_nth k' r end
  end.

Ltac jsim_go :=
  cbv beta zeta;
  lazymatch goal with
  | |- jsim _ (@JT.jbind _ _ _ (JT.jtick _ _) _) _ => apply jsim_tick_then; [assumption|jsim_go]
  | |- jsim _ (@JT.jbind _ _ _ _ _) (@jbind _ _ _ _) => apply jsim_bind; [jsim_go|intro; jsim_go]
  | |- jsim _ (@JT.jret _ _ _) _ => apply jsim_ret
  | |- jsim _ (@JT.jfail _ _ _) _ => apply jsim_fail
  | |- jsim _ (@JT.jlift _ _ _) _ => apply jsim_lift
  | |- jsim _ (@JT.jabort _ _ _) _ =>
      first [apply jsim_abort_oom|apply jsim_abort_oof|apply jsim_abort_div|apply jsim_abort_crash|apply jsim_abort_err]
  | |- jsim _ (JT.jget _) _ => apply jsim_get; assumption
  | |- jsim _ (JT.jmod _ _) _ => apply jsim_mod; assumption
  | |- jsim _ (match ?x with _ => _ end) (match ?y with _ => _ end) => change x with y; destruct y; jsim_go
  | |- jsim _ ?T _ =>
      (* a hypothesis (the walker, an induction hypothesis), a nested fix, a lemma proved earlier *)
      first [ jsim_hyp | jsim_nested T | (let h := jsim_head T in jsim_db h); jsim_side ]
  end
with jsim_hyp :=
  match goal with H : context [jsim] |- _ => eapply H; jsim_side end
with jsim_nested T :=
  (* a local fix applied to its list (and possibly an accumulator before it): induction on the list; a
     hypothesis [Forall _ l] about its elements (from an induction over a nested inductive type) goes along *)
  match T with
  | ?F ?i ?l =>
      is_fix F;
      lazymatch goal with
      | |- jsim ?LL _ (?G ?i' ?l') =>
          change l with l'; change i with i';
          let H := fresh "Hgen" in
          assert (H : forall j, jsim LL (F j l') (G j l')); [jsim_list_induction l'|apply H]
      end
  | ?F ?l =>
      is_fix F;
      lazymatch goal with
      | |- jsim _ _ (_ ?l') =>
          change l with l'; jsim_list_induction l'
      end
  end
with jsim_list_induction l :=
  try (match goal with HF : Forall _ l |- _ => revert HF end);
  let IH := fresh "IHl" in
  induction l as [|? ? IH]; intros; lazy beta iota;
  try (match goal with HF : Forall _ (_ :: _) |- _ => inversion HF; subst; clear HF end);
  jsim_go
with jsim_side :=
  lazymatch goal with
  | |- jlens_ok _ => assumption
  | |- @eq _ _ _ => reflexivity
  | |- Forall _ _ => assumption
  | |- jsim _ _ _ => jsim_go
  | |- forall _, _ => intros; subst; jsim_go
  end.

Ltac jsim_intros :=
  repeat lazymatch goal with
         | |- jsim _ _ _ => fail
         | |- forall _, _ => intro
         end;
  subst.

(* a Definition: unfold both sides, walk them *)
Ltac jsim_def unf := jsim_intros; unf tt; jsim_go.

(* introduces the groups (x x' : x = x') / (wt w : related), substituting the equalities; hands the
   model-side variables, last first, to the continuation *)
Ltac jsim_groups acc k :=
  lazymatch goal with
  | |- jsim _ _ _ => k acc
  | |- forall _, _ =>
      let a := fresh "a" in let a' := fresh "a'" in let E := fresh "E" in
      intros a a' E;
      lazymatch type of E with
      | a = a' => subst a'; jsim_groups (a, acc) k
      | _ => jsim_groups (a', acc) k
      end
  end.
Ltac jsim_revert_others x acc :=
  lazymatch acc with
  | (?y, ?r) => tryif constr_eq x y then idtac else (try revert y); jsim_revert_others x r
  | _ => idtac
  end.

(* a Fixpoint: induction on the structural argument (the k-th binder from the end), every other plain
   argument generalised; [unf] unfolds both fixpoints one step *)
Ltac jsim_fix k unf :=
  jsim_groups tt ltac:(fun acc =>
    let x := jsim_nth k acc in
    jsim_revert_others x acc;
    induction x; intros; unf tt; jsim_go).

(* soyjs.Write *)
Ltac jsim_prove_gen_file L HL Hvf :=
  unfold JT.gen_file, gen_file; change JT.jinit_state with jinit_state;
  lazymatch goal with
  | |- context [JT.visit_file L ?o ?fuel ?name ?body ?s] =>
      let H := fresh "H" in
      pose proof (Hvf s) as H; rewrite (l_get_put L HL) in H;
      destruct (JT.visit_file L o fuel name body s) as [[[]|?|?| | |] ?]; cbn [oproj] in H; rewrite <- H; reflexivity
  end.

Lemma jmpart_ind2 (P : jmpart -> Prop) :
  (forall t, P (JMRaw t)) -> (forall n, P (JMPh n)) ->
  (forall v cases, Forall (Forall P) cases -> P (JMPlural v cases)) ->
  forall p, P p.
Proof.
  intros Hr Hp Hpl. fix IH 1. intros [t|n|v cases]; [apply Hr|apply Hp|apply Hpl].
  induction cases as [|c cr IHc]; constructor; [|exact IHc].
  induction c as [|q qr IHq]; constructor; [apply IH|exact IHq].
Qed.

(* a Fixpoint over message parts: as [jsim_fix], by [jmpart_ind2]; the nested loops over the cases and their
   parts are handled by [jsim_nested] with the Forall hypotheses *)
Ltac jsim_prove_jeval_part unf :=
  jsim_groups tt ltac:(fun acc =>
    let p := jsim_nth 0%nat acc in
    jsim_revert_others p acc;
    induction p using jmpart_ind2; intros; unf tt; jsim_go).
