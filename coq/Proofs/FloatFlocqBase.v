(* The ONE conversion between the project's floats (Model/Num.v: fl) and real numbers, for every statement
   made against Flocq:  ff_R (FFin m e) = m * 2^e  (Flocq's F2R (Float radix2 m e)); zeros, NaN and the
   infinities map to 0 (statements exclude the latter two).
   Shared by Proofs/FloatFlocq.v / FloatFlocqDiv.v (the arithmetic of Num.v, C01) and Proofs/NumLitFlocq.v
   (strconv.ParseFloat's rounding, C05/C18).
   These lemmas are about real numbers: Print Assumptions reports the axioms of Coq's Reals. *)
From Coq Require Import ZArith Reals Lia.
From Flocq Require Import Core.Core Core.Digits Core.Float_prop.
From Soy Require Import Model.Bytes Model.Num.
Open Scope Z_scope.

#[global] Instance ff_prec_gt_0 : Prec_gt_0 53.
Proof. reflexivity. Qed.

Lemma ff_digits_log2 a : 0 < a -> Zdigits radix2 a = Z.log2 a + 1.
Proof.
  intros Ha. apply Zdigits_unique. rewrite Z.abs_eq by lia. replace (Z.log2 a + 1 - 1) with (Z.log2 a) by lia.
  change (Zpower radix2 (Z.log2 a)) with (2 ^ Z.log2 a). change (Zpower radix2 (Z.log2 a + 1)) with (2 ^ (Z.log2 a + 1)).
  pose proof (Z.log2_spec a Ha) as [L1 L2]. rewrite <- Z.add_1_r in L2. lia.
Qed.

Lemma ff_Rlt_bool_F2R M E : Rlt_bool (F2R (Float radix2 M E)) 0 = (M <? 0).
Proof.
  destruct (Z.ltb_spec M 0) as [H|H].
  - apply Rlt_bool_true. apply F2R_lt_0. exact H.
  - apply Rlt_bool_false. apply F2R_ge_0. exact H.
Qed.

(* the value of a float of the model *)
Definition ff_R (x : fl) : R :=
  match x with
  | FFin m e => F2R (Float radix2 m e)
  | _ => 0%R
  end.

Lemma ff_strip2 p : forall e q e', strip2 p e = (q, e') ->
  forall s : bool, F2R (Float radix2 (if s then Zneg p else Zpos p) e) = F2R (Float radix2 (if s then Zneg q else Zpos q) e').
Proof.
  induction p as [p IH|p IH|]; intros e q e' H s; cbn [strip2] in H; try (injection H as <- <-; reflexivity).
  rewrite <- (IH (e + 1) q e' H s).
  rewrite (F2R_change_exp radix2 e (if s then Zneg p else Zpos p) (e + 1)) by lia.
  replace (e + 1 - e) with 1 by lia. change (Zpower radix2 1) with 2. f_equal. f_equal. destruct s; lia.
Qed.

(* mk_fl keeps the value *)
Lemma ff_mk_fl m e x : mk_fl m e = Some x -> ff_R x = F2R (Float radix2 m e).
Proof.
  unfold mk_fl. destruct m as [|p|p]; [intros H; injection H as <-; symmetry; apply F2R_0| |];
    (destruct (strip2 p e) as [q e'] eqn:S; destruct ((Zpos q <? two53) && (-1000 <? e') && (e' <? 900))%bool; [|discriminate];
     intros H; injection H as <-; cbn [ff_R]; symmetry).
  - exact (ff_strip2 p e q e' S false).
  - exact (ff_strip2 p e q e' S true).
Qed.
