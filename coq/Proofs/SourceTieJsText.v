(* Source tie, family 78-gotrans-soyjs-scope, the text part: the constant strings that the visit functions of
   soyjs/exec.go write through s.js / s.jsln, in source order (tablegen's gotrans reads them from the source of the tree under check), against
   the t_ constants of Model/JsGen.v that the model's walker writes at the same places.  A change of one of these strings
   in the Go code breaks the corresponding lemma; what the lemmas do not say is where between the strings the variable
   parts go (that stays with the correspondence check). *)
From Coq Require Import NArith List.
From Soy Require Import Model.Bytes Generated.Tables Model.JsGen.
Import ListNotations.
Open Scope N_scope.

Theorem js_text_visitIf_matches_source :
  [t_else; t_if_open; t_op_mid1; t_brace_nl; t_rbrace; t_nl] = src_soyjs_state_visitIf_lits.
Proof. reflexivity. Qed.
Theorem js_text_visitForRange_matches_source :
  [t_var; t_eq; t_semi; t_var; t_eq; t_semi; t_var; t_count1; t_minus; t_count2; t_count3] = src_soyjs_state_visitForRange_lits.
Proof. reflexivity. Qed.
Theorem js_text_visitForeach_matches_source :
  [t_var; t_eq; t_semi; t_var; t_eq; t_length] = src_soyjs_state_visitForeach_lits.
Proof. reflexivity. Qed.
Theorem js_text_visitLoop_matches_source :
  [t_if_open; t_gt0; t_for_open; t_eq0_semi; t_lt; t_semi_sp; t_plusplus; t_var; t_eq; t_semi; t_rbrace; t_else_block; t_rbrace]
  = src_soyjs_state_visitLoop_lits.
Proof. reflexivity. Qed.
Theorem js_text_visitNamespace_matches_source : [t_ns1; t_ns2; t_ns3] = src_soyjs_state_visitNamespace_lits.
Proof. reflexivity. Qed.
Theorem js_text_visitTemplate_matches_source :
  [[]; t_fn_params; t_optdata_init; t_var_output; t_return_output; t_fn_end] = src_soyjs_state_visitTemplate_lits.
Proof. reflexivity. Qed.
Theorem js_text_visitPrint_matches_source :
  [t_pluseq; t_lpar; t_comma; t_truncate_true; t_rpar; t_semi_nl] = src_soyjs_state_visitPrint_lits.
Proof. reflexivity. Qed.
Theorem js_text_visitCall_matches_source :
  [t_var; t_eq_empty; t_pluseq; t_lpar; t_call_tail] = src_soyjs_state_visitCall_lits.
Proof. reflexivity. Qed.
Theorem js_text_visitSwitch_matches_source :
  [t_switch_open; t_for_close; t_case; t_colon; t_default; t_break; t_rbrace] = src_soyjs_state_visitSwitch_lits.
Proof. reflexivity. Qed.
Theorem js_text_visitDataRef_matches_source :
  [t_op_open; t_nullsafe; t_op_open; t_nullsafe; t_op_open; t_nullsafe] = src_soyjs_state_visitDataRef_lits.
Proof. reflexivity. Qed.
Theorem js_text_visitFunction_matches_source :
  [t_lpar; t_eq0; t_lpar; t_eqeq; t_minus1] = src_soyjs_state_visitFunction_lits.
Proof. reflexivity. Qed.
Theorem js_text_evalMsgParts_matches_source :
  [t_plural_open; t_plural_close; t_case; t_colon; t_break; t_rbrace] = src_soyjs_state_evalMsgParts_lits.
Proof. reflexivity. Qed.
Theorem js_text_walkPlural_matches_source :
  [t_switch_open; t_for_close; t_case; t_colon; t_break; t_default; t_rbrace] = src_soyjs_state_walkPlural_lits.
Proof. reflexivity. Qed.
Theorem js_text_op_matches_source : [t_op_open; t_op_mid1; t_op_mid2; t_op_close] = src_soyjs_state_op_lits.
Proof. reflexivity. Qed.
Theorem js_text_visitSoyFile_matches_source : [t_hdr1; t_dot; t_hdr2; []] = src_soyjs_state_visitSoyFile_lits.
Proof. reflexivity. Qed.
