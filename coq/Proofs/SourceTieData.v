(* Source tie, family 74-gotrans-data (data/value.go): List.Index and Map.Key of the hand
   model (Model/Values.v) against the methods as gotrans translates them from the source of the tree under check.
   (Truthy and Equals are tied by tablegen's values.go and Proofs/ValueTieProofs.v.)
 *)
From Coq Require Import ZArith NArith Bool Lia ZifyBool List.
From Soy Require Import Model.Bytes Model.Num Model.Outcome Model.Values Generated.Tables Proofs.SourceTieBase Proofs.SourceTieValue.
Import ListNotations.
Open Scope N_scope.

(* func (v List) Index(i int) Value *)
Theorem list_index_matches_source (l : list value) (i : Z) :
  src_data_List_Index value VUndef l i = Some (list_index l i).
Proof.
  unfold src_data_List_Index, list_index. cbv zeta.
  pose proof (go_len_nonneg l) as Hl. change (Z.of_nat (length l)) with (go_len l).
  destruct (Z_lt_dec i 0) as [Hi|Hi]; [st_decide_ifs; reflexivity|].
  destruct (Z_le_dec (go_len l) i) as [Hj|Hj]; [st_decide_ifs; reflexivity|].
  st_decide_ifs. rewrite go_index_in by lia. cbv zeta.
  destruct (nth_error l (Z.to_nat i)) eqn:E2; [reflexivity|].
  apply nth_error_None in E2. unfold go_len in Hj. lia.
Qed.

(* func (v Map) Key(k string) Value *)
Theorem map_key_matches_source (m : list (bstr * value)) (k : bstr) :
  src_data_Map_Key value VUndef m k = map_key m k.
Proof. reflexivity. Qed.

(* the String methods of the scalar kinds, as Model/Values.v's to_string prints them
   (Undefined.String panics: [Err]; Float.String is strconv.FormatFloat, modelled in Model/Num.v;
   List.String and Map.String are loops, tied by the correspondence only) *)
Theorem scalar_string_matches_source (f : nat) (v : value) :
  match v with
  | VUndef => to_string (S f) v = match src_data_Undefined_String with Some s => Ok s | None => Err e_undef_string end
  | VNull => to_string (S f) v = Ok src_data_Null_String
  | VBool x => to_string (S f) v = Ok (src_data_Bool_String x)
  | VInt z => to_string (S f) v = Ok (src_data_Int_String z)
  | VStr s => to_string (S f) v = Ok (src_data_String_String s)
  | _ => True
  end.
Proof. destruct v as [| |x|z|x|s|i l|i m]; try exact I; try reflexivity. destruct x; reflexivity. Qed.
