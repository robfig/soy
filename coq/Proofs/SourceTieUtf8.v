(* Source tie, common part for the translated functions that decode UTF-8 (utf8.DecodeRuneInString as a parameter of the
   translation, range over the runes of a string): the decoder of Model/Utf8.v as the instance of that parameter
   ([st_dec]), its width bounds, the runes of a string one decoding step at a time, and Go's s[i:] / s[i:i+k] on byte
   strings.  Of the models it imports Model/Bytes.v, Model/Utf8.v and the generated tables only. *)
From Coq Require Import ZArith NArith Bool Lia ZifyBool List.
From Soy Require Import Model.Bytes Model.Utf8 Generated.Tables Proofs.BytesBase Proofs.SourceTieBase Proofs.SourceTieState.
Import ListNotations.
Open Scope N_scope.

Definition st_dec (s : bstr) : Z * Z := let '(r, w) := decode_rune s in (Z.of_N r, Z.of_nat w).

Lemma st_decode_width (s : bstr) : s <> [] -> (1 <= snd (decode_rune s) <= length s)%nat.
Proof.
  intros Hne. destruct s as [|b0 s]; [congruence|]. unfold decode_rune, is_cont, in_range, rune_error.
  destruct s as [|b1 [|b2 [|b3 s]]];
  repeat match goal with |- context [if ?c then _ else _] => destruct c eqn:? end;
  cbn [fst snd length]; lia.
Qed.

(* a lead byte from 128 on never decodes to an ASCII rune *)
Lemma st_decode_high (c0 : N) (t : bstr) : 128 <= c0 -> 128 <= fst (decode_rune (c0 :: t)).
Proof.
  intros H. unfold decode_rune, is_cont, in_range, rune_error. replace (c0 <? 128) with false by lia.
  destruct t as [|b1 [|b2 [|b3 t]]];
    repeat match goal with
           | |- context [if ?c then _ else _] =>
               lazymatch c with context [if _ then _ else _] => fail | _ => destruct c eqn:? end
           end; cbn [fst]; lia.
Qed.

Lemma st_go_slice_drop (s : bstr) (i : nat) : (i <= length s)%nat -> go_slice s (Z.of_nat i) (go_len s) = Some (drop i s).
Proof.
  intros H. unfold go_slice, go_len. replace (orb _ _) with false by lia. f_equal.
  rewrite Nat2Z.id. replace (Z.to_nat (Z.of_nat (length s) - Z.of_nat i)) with (length s - i)%nat by lia.
  revert i H. induction s as [|c s IH]; intros [|i] H; cbn [drop length] in *; try reflexivity; try lia.
  - cbn [Nat.sub take]. f_equal. specialize (IH 0%nat ltac:(lia)). cbn [drop] in IH. rewrite Nat.sub_0_r in IH. exact IH.
  - apply IH. lia.
Qed.

(* the rune at byte index i: its width stays inside the string, and what follows it starts at i + width *)
Lemma st_rune_at (s : bstr) (i : nat) : (i < length s)%nat ->
  exists r w, decode_rune (drop i s) = (r, w) /\ st_dec (drop i s) = (Z.of_N r, Z.of_nat w) /\ drop i s <> [] /\
              (1 <= w)%nat /\ (i + w <= length s)%nat /\ drop w (drop i s) = drop (i + w) s.
Proof.
  intros Hi. assert (Hne : drop i s <> []).
  { intros E. apply (f_equal (@length N)) in E. rewrite drop_length in E. cbn [length] in E. lia. }
  pose proof (st_decode_width _ Hne) as Hw. rewrite drop_length in Hw.
  unfold st_dec. destruct (decode_rune (drop i s)) as [r w]. exists r, w. cbn [snd] in Hw.
  repeat split; [exact Hne | lia | lia | apply drop_drop].
Qed.

Lemma st_go_slice_take_drop (s : bstr) (i k : nat) :
  (i + k <= length s)%nat -> go_slice s (Z.of_nat i) (Z.of_nat i + Z.of_nat k)%Z = Some (take k (drop i s)).
Proof.
  intros H. unfold go_slice, go_len. replace (orb _ _) with false by lia. f_equal.
  rewrite Nat2Z.id. replace (Z.to_nat (Z.of_nat i + Z.of_nat k - Z.of_nat i)) with k by lia. reflexivity.
Qed.

(* the runes of a string, one decoding step at a time *)
Lemma stq_runes_aux_skip (t : bstr) : forall k, runes_aux k t = runes_aux 0 (drop k t).
Proof.
  induction t as [|c t IH]; intros [|k]; try reflexivity.
  cbn [runes_aux drop]. apply IH.
Qed.

Lemma stq_runes_step (s : bstr) : s <> [] ->
  runes s = fst (decode_rune s) :: runes (drop (snd (decode_rune s)) s).
Proof.
  intros Hne. pose proof (st_decode_width s Hne) as Hw. destruct s as [|c t]; [congruence|].
  unfold runes. cbn [runes_aux]. destruct (decode_rune (c :: t)) as [r w]. cbn [fst snd] in *.
  destruct w as [|w]; [lia|]. cbn [pred drop]. f_equal. apply stq_runes_aux_skip.
Qed.

