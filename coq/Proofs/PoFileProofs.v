(* Round trip of the PO file's quoted fields (Model/PoFile.v): strconv.Unquote inverts
   strconv.Quote on every byte string, scanner.quo reads back what writer.quo wrote (one line or
   the multi-line form), and the quoted fields of a message (msgctxt, msgid, msgid_plural,
   msgstr / msgstr[i]) are read back as written -- for EVERY IsPrint table. *)
From Coq Require Import Lia ZifyBool List Bool.
From Soy Require Import Model.Bytes Model.Outcome Model.Utf8 Model.PoFile Proofs.Utf8Proofs.
From Soy Require Export Proofs.BytesBase.
Import ListNotations.
Open Scope N_scope.

Definition bytes (s : bstr) : Prop := Forall (fun c => c < 256) s.

Lemma Forall_app_2 {A} (P : A -> Prop) l1 l2 : Forall P l1 -> Forall P l2 -> Forall P (l1 ++ l2).
Proof. intros H1 H2. apply Forall_app. split; assumption. Qed.

Section Po.
Variable is_print : N -> bool.
Notation esc_rune := (esc_rune is_print).
Notation quote_go := (quote_go is_print).
Notation quote_body := (quote_body is_print).
Notation po_go_quote := (po_go_quote is_print).
Notation po_quo := (po_quo is_print).
Notation po_opt := (po_opt is_print).
Notation po_msgstr := (po_msgstr is_print).
Notation po_plural := (po_plural is_print).
Notation po_plural_from := (po_plural_from is_print).
Notation po_write_fields := (po_write_fields is_print).

Lemma unhex_hexdig d : d < 16 -> unhex (hexdig d) = Some d.
Proof.
  intro H. unfold unhex, hexdig, in_range.
  destruct (d <? 10) eqn:E.
  - replace ((48 <=? 48 + d) && (48 + d <=? 57)) with true by lia. f_equal. lia.
  - replace ((48 <=? 87 + d) && (87 + d <=? 57)) with false by lia.
    replace ((97 <=? 87 + d) && (87 + d <=? 102)) with true by lia. f_equal. lia.
Qed.

Lemma unhex_n_step k acc d X : d < 16 -> unhex_n (S k) acc (hexdig d :: X) = unhex_n k (acc * 16 + d) X.
Proof. intro H. cbn [unhex_n]. rewrite unhex_hexdig by exact H. reflexivity. Qed.

(* k hex digits of r, most significant first: the common form of hex2, hex4 and hex8 *)
Fixpoint hexn (k : nat) (r : N) : bstr :=
  match k with O => [] | S k' => hexdig (r / 16 ^ N.of_nat k' mod 16) :: hexn k' r end.

Lemma unhex_n_hexn k : forall acc r X,
  unhex_n k acc (hexn k r ++ X) = Some (acc * 16 ^ N.of_nat k + r mod 16 ^ N.of_nat k, X).
Proof.
  induction k as [|k IH]; intros acc r X.
  - cbn. rewrite N.mod_1_r, N.mul_1_r, N.add_0_r. reflexivity.
  - cbn [hexn app]. rewrite unhex_n_step by (apply N.mod_lt; discriminate). rewrite IH.
    rewrite Nnat.Nat2N.inj_succ, N.pow_succ_r', (N.mul_comm 16), N.mod_mul_r by (try apply N.pow_nonzero; discriminate).
    f_equal. f_equal. ring.
Qed.

Lemma unhex_hexn k r X : r < 16 ^ N.of_nat k -> unhex_n k 0 (hexn k r ++ X) = Some (r, X).
Proof. intro H. rewrite unhex_n_hexn, N.mod_small by exact H. reflexivity. Qed.

Lemma unhex_hex2 c X : c < 256 -> unhex_n 2 0 (hex2 c ++ X) = Some (c, X).
Proof.
  intro H. replace (hex2 c) with (hexn 2 c) by (cbn [hexn]; rewrite N.div_1_r; reflexivity).
  apply unhex_hexn. exact H.
Qed.
Lemma unhex_hex4 r X : r < 65536 -> unhex_n 4 0 (hex4 r ++ X) = Some (r, X).
Proof.
  intro H. replace (hex4 r) with (hexn 4 r) by (cbn [hexn]; rewrite N.div_1_r; reflexivity).
  apply unhex_hexn. exact H.
Qed.
Lemma unhex_hex8 r X : r < 4294967296 -> unhex_n 8 0 (hex8 r ++ X) = Some (r, X).
Proof.
  intro H. replace (hex8 r) with (hexn 8 r) by (cbn [hexn]; rewrite N.div_1_r; reflexivity).
  apply unhex_hexn. exact H.
Qed.

(* what the loop of unquote appends for (value, multibyte) *)
Definition appended (v : N) (mb : bool) : bstr := if (v <? 128) || negb mb then [v] else encode_rune v.

Lemma valid_scalar_rune r : valid_scalar r -> valid_rune r = true.
Proof. unfold valid_scalar, valid_rune. lia. Qed.

Lemma uq_raw_multibyte r X : valid_scalar r -> 128 <= r ->
  exists c0 tl, encode_rune r = c0 :: tl /\ 128 <= c0 /\
  unquote_char (encode_rune r ++ X) = Some (r, true, X).
Proof.
  intros Hv Hr. destruct (encode_rune_shape r Hv) as (c0 & tl & E & _ & _ & _ & Hlt & _).
  exists c0, tl. split; [exact E|]. assert (H0 : 128 <= c0) by lia. split; [exact H0|].
  pose proof (decode_encode r X Hv) as Hd. rewrite E in *. cbn [app] in *.
  unfold unquote_char. replace (c0 =? 34) with false by lia. replace (128 <=? c0) with true by lia.
  rewrite Hd. f_equal. f_equal.
  change (c0 :: tl ++ X) with ((c0 :: tl) ++ X). apply drop_app_len.
Qed.

Lemma uq_hex2 c X : c < 256 -> unquote_char (92 :: 120 :: hex2 c ++ X) = Some (c, false, X).
Proof.
  intro H. unfold unquote_char. cbn [N.eqb Pos.eqb N.leb N.compare Pos.compare Pos.compare_cont negb].
  rewrite unhex_hex2 by exact H. reflexivity.
Qed.

Lemma appended_rune r mb : r < 128 \/ mb = true -> appended r mb = encode_rune r.
Proof.
  intro H. unfold appended, encode_rune. destruct (r <? 128) eqn:E; [reflexivity|].
  destruct H as [H| ->]; [lia|reflexivity].
Qed.

Lemma uq_esc r X : valid_scalar r ->
  exists v mb c0 tl, esc_rune r ++ X = c0 :: tl /\ c0 <> 34 /\ c0 <> 10 /\
    unquote_char (esc_rune r ++ X) = Some (v, mb, X) /\ appended v mb = encode_rune r.
Proof.
  intro Hv.
  (* an escape sequence: the backslash, then what unquote_char reads as r *)
  assert (Hbs : forall t mb, r < 128 \/ mb = true -> unquote_char (92 :: t ++ X) = Some (r, mb, X) ->
            exists v mb c0 tl, (92 :: t) ++ X = c0 :: tl /\ c0 <> 34 /\ c0 <> 10 /\
              unquote_char ((92 :: t) ++ X) = Some (v, mb, X) /\ appended v mb = encode_rune r).
  { intros t mb Hmb Hu. exists r, mb, 92, (t ++ X). repeat split; try discriminate; [exact Hu|].
    apply appended_rune, Hmb. }
  unfold esc_rune.
  destruct ((r =? 34) || (r =? 92)) eqn:E1.
  { apply (Hbs [r] false); [lia|]. assert (r = 34 \/ r = 92) as [-> | ->] by lia; reflexivity. }
  destruct (printable is_print r) eqn:E2.
  { destruct (N.ltb_spec r 128) as [Hlt|Hge].
    - unfold printable in E2. replace (r <? 128) with true in E2 by lia.
      assert (Henc : encode_rune r = [r]) by (unfold encode_rune; replace (r <? 128) with true by lia; reflexivity).
      rewrite Henc. exists r, false, r, X. cbn [app]. repeat split; try lia; [|rewrite <- Henc; apply appended_rune; auto].
      unfold unquote_char. replace (r =? 34) with false by lia. replace (128 <=? r) with false by lia.
      replace (r =? 92) with false by lia. reflexivity.
    - destruct (uq_raw_multibyte r X Hv Hge) as (c0 & tl & E & H0 & Hu).
      exists r, true, c0, (tl ++ X). split; [rewrite E; reflexivity|]. split; [lia|]. split; [lia|].
      split; [exact Hu|apply appended_rune; auto]. }
  destruct (N.eqb_spec r 7) as [->|_]; [apply (Hbs [97] false); [lia|reflexivity]|].
  destruct (N.eqb_spec r 8) as [->|_]; [apply (Hbs [98] false); [lia|reflexivity]|].
  destruct (N.eqb_spec r 12) as [->|_]; [apply (Hbs [102] false); [lia|reflexivity]|].
  destruct (N.eqb_spec r 10) as [->|_]; [apply (Hbs [110] false); [lia|reflexivity]|].
  destruct (N.eqb_spec r 13) as [->|_]; [apply (Hbs [114] false); [lia|reflexivity]|].
  destruct (N.eqb_spec r 9) as [->|_]; [apply (Hbs [116] false); [lia|reflexivity]|].
  destruct (N.eqb_spec r 11) as [->|_]; [apply (Hbs [118] false); [lia|reflexivity]|].
  destruct ((r <? 32) || (r =? 127)) eqn:Ec.
  { apply (Hbs (120 :: hex2 r) false); [lia|]. apply uq_hex2. lia. }
  destruct (r <? 65536) eqn:E16.
  - apply (Hbs (117 :: hex4 r) true); [auto|]. unfold unquote_char.
    cbn [app N.eqb Pos.eqb N.leb N.compare Pos.compare Pos.compare_cont negb].
    rewrite unhex_hex4 by lia. rewrite valid_scalar_rune by exact Hv. reflexivity.
  - apply (Hbs (85 :: hex8 r) true); [auto|]. unfold unquote_char.
    cbn [app N.eqb Pos.eqb N.leb N.compare Pos.compare Pos.compare_cont negb].
    rewrite unhex_hex8 by (unfold valid_scalar in Hv; lia). rewrite valid_scalar_rune by exact Hv. reflexivity.
Qed.

(* one iteration of Quote: the bytes consumed, and the piece emitted, which unquote reads back *)
Lemma quote_step f c s' : bytes (c :: s') ->
  exists u rest piece, c :: s' = u ++ rest /\ u <> [] /\
    quote_go (S f) (c :: s') = piece ++ quote_go f rest /\
    forall X, exists v mb c0 tl, piece ++ X = c0 :: tl /\ c0 <> 34 /\ c0 <> 10 /\
      unquote_char (piece ++ X) = Some (v, mb, X) /\ appended v mb = u.
Proof.
  intro Hb. assert (Hc : c < 256) by (inversion Hb; assumption).
  cbn [quote_go].
  destruct (c <? 128) eqn:Ec.
  - (* ASCII *)
    replace (Nat.eqb 1 1 && (c =? rune_error)) with false by (unfold rune_error; cbn [Nat.eqb andb]; lia).
    exists [c], s', (esc_rune c). cbn [drop app]. split; [reflexivity|]. split; [discriminate|]. split; [reflexivity|].
    intro X. assert (Hv : valid_scalar c) by (unfold valid_scalar; lia).
    destruct (uq_esc c X Hv) as (v & mb & c0 & tl & E & H1 & H2 & Hu & Ha).
    exists v, mb, c0, tl. repeat split; auto. rewrite Ha. unfold encode_rune. rewrite Ec. reflexivity.
  - destruct (decode_rune (c :: s')) as [r w] eqn:Hd.
    destruct (Nat.eqb w 1 && (r =? rune_error)) eqn:Ebad.
    + (* an invalid byte *)
      exists [c], s', (92 :: 120 :: hex2 c). cbn [drop app]. split; [reflexivity|]. split; [discriminate|].
      split; [reflexivity|]. intro X. exists c, false, 92, (120 :: hex2 c ++ X).
      repeat split; try discriminate; [apply uq_hex2; exact Hc|].
      unfold appended. cbn [negb orb]. rewrite orb_true_r. reflexivity.
    + assert (Hnb : ~ (r = rune_error /\ w = 1%nat)).
      { intros [-> ->]. cbn in Ebad. discriminate. }
      destruct (decode_rune_inv (c :: s') r w ltac:(discriminate) Hd Hnb) as (Hv & Hlen & Hs).
      exists (encode_rune r), (drop w (c :: s')), (esc_rune r).
      split; [exact Hs|]. split.
      { destruct (encode_rune_len_pos r Hv) as (tl & c0 & E). rewrite E. discriminate. }
      split; [reflexivity|]. intro X.
      destruct (uq_esc r X Hv) as (v & mb & c0 & tl & E & H1 & H2 & Hu & Ha).
      exists v, mb, c0, tl. repeat split; auto.
Qed.

Theorem unq_loop_quote_go : forall n s, (length s <= n)%nat -> bytes s ->
  forall f fuel acc X, (length s <= f)%nat -> (length (quote_go f s) < fuel)%nat ->
  unq_loop fuel (quote_go f s ++ 34 :: X) acc = Some (acc ++ s, X).
Proof.
  induction n as [|n IH]; intros s Hn Hb f fuel acc X Hf Hfuel.
  - destruct s; [|cbn in Hn; lia]. destruct f; cbn [quote_go app]; destruct fuel; try lia;
      cbn [unq_loop N.eqb Pos.eqb]; rewrite app_nil_r; reflexivity.
  - destruct s as [|c s'].
    { destruct f; cbn [quote_go app]; destruct fuel; try lia; cbn [unq_loop N.eqb Pos.eqb]; rewrite app_nil_r; reflexivity. }
    destruct f as [|f]; [cbn in Hf; lia|].
    destruct (quote_step f c s' Hb) as (u & rest & piece & Hs & Hu & Hq & Hp).
    rewrite Hq in *. rewrite <- app_assoc.
    destruct (Hp (quote_go f rest ++ 34 :: X)) as (v & mb & c0 & tl & E & H1 & H2 & Huq & Ha).
    assert (Hlen : length (c :: s') = (length u + length rest)%nat) by (rewrite Hs; apply app_length).
    assert (Hlu : (1 <= length u)%nat) by (destruct u; [congruence|cbn; lia]).
    cbn [length] in Hlen, Hn, Hf.
    destruct fuel as [|fuel]; [lia|].
    cbn [unq_loop]. rewrite E. replace (c0 =? 34) with false by lia. rewrite <- E, Huq.
    replace (c0 =? 10) with false by lia.
    change (if (v <? 128) || negb mb then [v] else encode_rune v) with (appended v mb). rewrite Ha.
    rewrite IH; [rewrite <- app_assoc, <- Hs; reflexivity|lia| |lia|].
    + rewrite Hs in Hb. apply Forall_app in Hb. apply Hb.
    + rewrite app_length in Hfuel. assert (1 <= length piece)%nat; [|lia].
      destruct piece; [|cbn; lia]. cbn [app] in E. specialize (Hp []). destruct Hp as (? & ? & ? & ? & Hp & _). discriminate.
Qed.

Lemma unq_loop_plain Y : forall body, utf8_valid body = true ->
  ~ In 34 body -> ~ In 92 body -> ~ In 10 body ->
  forall fuel acc, (length body < fuel)%nat -> unq_loop fuel (body ++ 34 :: Y) acc = Some (acc ++ body, Y).
Proof.
  apply (utf8_valid_ind (fun body => ~ In 34 body -> ~ In 92 body -> ~ In 10 body ->
    forall fuel acc, (length body < fuel)%nat -> unq_loop fuel (body ++ 34 :: Y) acc = Some (acc ++ body, Y))).
  - intros _ _ _ fuel acc Hf. destruct fuel; [lia|]. cbn [app unq_loop N.eqb Pos.eqb]. rewrite app_nil_r. reflexivity.
  - intros r B Hv HB IH H34 H92 H10 fuel acc Hf.
    destruct (encode_rune_shape r Hv) as (c0 & tl & E & _ & _ & _ & Hiff & Hsm & _).
    assert (Hin : forall x, In x (encode_rune r) -> In x (encode_rune r ++ B)) by (intros; apply in_or_app; auto).
    assert (HinB : forall x, In x B -> In x (encode_rune r ++ B)) by (intros; apply in_or_app; auto).
    rewrite app_length in Hf. destruct fuel as [|fuel]; [lia|].
    assert (Hl : (1 <= length (encode_rune r))%nat) by (rewrite E; cbn; lia).
    assert (Hu : exists mb, unquote_char (encode_rune r ++ B ++ 34 :: Y) = Some (r, mb, B ++ 34 :: Y) /\ appended r mb = encode_rune r).
    { destruct (N.ltb_spec r 128) as [Hlt|Hge].
      - destruct (Hsm Hlt) as [-> ->]. rewrite E in *. exists false. cbn [app]. split.
        + unfold unquote_char.
          replace (r =? 34) with false by (destruct (N.eqb_spec r 34); [subst; exfalso; apply H34; left; reflexivity|reflexivity]).
          replace (128 <=? r) with false by lia.
          replace (r =? 92) with false by (destruct (N.eqb_spec r 92); [subst; exfalso; apply H92; left; reflexivity|reflexivity]).
          reflexivity.
        + unfold appended. replace (r <? 128) with true by lia. reflexivity.
      - destruct (uq_raw_multibyte r (B ++ 34 :: Y) Hv Hge) as (c1 & tl1 & E1 & H1 & Hu). exists true. split; [exact Hu|apply appended_rune; auto]. }
    destruct Hu as (mb & Hu & Ha).
    rewrite <- app_assoc. rewrite E at 1. cbn [app unq_loop].
    replace (c0 =? 34) with false by (destruct (N.eqb_spec c0 34); [subst; exfalso; apply H34, Hin; rewrite E; left; reflexivity|reflexivity]).
    change (c0 :: tl ++ B ++ 34 :: Y) with ((c0 :: tl) ++ B ++ 34 :: Y). rewrite <- E, Hu.
    replace (c0 =? 10) with false by (destruct (N.eqb_spec c0 10); [subst; exfalso; apply H10, Hin; rewrite E; left; reflexivity|reflexivity]).
    change (if (r <? 128) || negb mb then [r] else encode_rune r) with (appended r mb). rewrite Ha. rewrite IH; [rewrite app_assoc; reflexivity| | | |lia]; intro H; [apply H34|apply H92|apply H10]; auto.
Qed.

Lemma index_byte_split c l e : index_byte c l = Some e ->
  l = take e l ++ c :: drop (S e) l /\ ~ In c (take e l).
Proof.
  revert e; induction l as [|x l IH]; intros e H; cbn [index_byte] in H; [discriminate|].
  destruct (N.eqb_spec x c) as [->|Hne].
  - inversion H; subst. cbn. auto.
  - destruct (index_byte c l) as [i|] eqn:Ei; [|discriminate]. inversion H; subst.
    destruct (IH i eq_refl) as [H1 H2]. cbn [take drop app]. split; [f_equal; exact H1|].
    intros [Hx|Hx]; [congruence|auto].
Qed.
Lemma index_byte_some c l X : exists e, index_byte c (l ++ c :: X) = Some e.
Proof.
  induction l as [|x l [e IH]]; cbn [app index_byte].
  - rewrite N.eqb_refl. eauto.
  - destruct (x =? c); [eauto|]. rewrite IH. eauto.
Qed.

Lemma contains_false s c : contains s c = false -> ~ In c s.
Proof.
  unfold contains. intros H Hin. assert (existsb (N.eqb c) s = true); [|congruence].
  apply existsb_exists. exists c. split; [exact Hin|apply N.eqb_refl].
Qed.

Theorem unquote_quote (s : bstr) : bytes s -> go_unquote (po_go_quote s) = Ok s.
Proof.
  intro Hb. unfold po_go_quote, go_unquote.
  set (rest1 := quote_body s ++ [34]).
  assert (Hlen : Nat.ltb (length (34 :: rest1)) 2 = false).
  { apply PeanoNat.Nat.ltb_ge. subst rest1. cbn [length]. rewrite app_length. cbn. lia. }
  rewrite Hlen. cbn [N.eqb Pos.eqb].
  assert (Hgen : unq_loop (S (length rest1)) rest1 [] = Some (s, [])).
  { subst rest1. unfold quote_body.
    rewrite (unq_loop_quote_go (length s) s (le_n _) Hb (length s) _ [] [] (le_n _)); [reflexivity|].
    rewrite app_length. cbn. lia. }
  destruct (index_byte_some 34 (quote_body s) []) as [e He]. fold rest1 in He. rewrite He.
  destruct (index_byte_split 34 rest1 e He) as [Hsplit Hno].
  destruct (negb (contains (take e rest1) 92) && negb (contains (take e rest1) 10) && utf8_valid (take e rest1)) eqn:Efast.
  - apply andb_true_iff in Efast. destruct Efast as [Efast Hvalid]. apply andb_true_iff in Efast. destruct Efast as [E92 E10].
    apply negb_true_iff in E92, E10.
    pose proof (unq_loop_plain (drop (S e) rest1) (take e rest1) Hvalid Hno (contains_false _ _ E92) (contains_false _ _ E10)
                  (S (length rest1)) []) as Hp.
    rewrite <- Hsplit in Hp. rewrite Hgen in Hp.
    assert (Hl : (length (take e rest1) < S (length rest1))%nat).
    { rewrite Hsplit at 2. rewrite app_length. lia. }
    specialize (Hp Hl). change ([] ++ take e rest1) with (take e rest1) in Hp.
    assert (H1 : s = take e rest1) by congruence. assert (H2 : drop (S e) rest1 = []) by congruence.
    rewrite H2, H1. reflexivity.
  - rewrite Hgen. reflexivity.
Qed.

(* the scanner standing on the first of the given lines *)
Definition scan_of (ls : list bstr) (e : bool) : scan :=
  {| sc_cur := hd [] ls; sc_rest := tl ls; sc_err := e |}.

Lemma sc_scan_of l ls e : sc_scan (scan_of (l :: ls) e) = (match ls with [] => false | _ => true end, scan_of ls e).
Proof. destruct ls; reflexivity. Qed.

(* no continuation: the input ends, or the next line does not start with a double quote *)
Definition no_quote_next (tail : list bstr) : Prop :=
  match tail with [] => True | l :: _ => match l with 34 :: _ => False | _ => True end end.

Lemma trim_left_quote m : trim_left (34 :: m) = 34 :: m.
Proof. reflexivity. Qed.
Lemma trim_space_quoted sp m : sp = [] \/ sp = [32] -> trim_space (sp ++ 34 :: m ++ [34]) = 34 :: m ++ [34].
Proof.
  intro Hsp. unfold trim_space.
  replace (trim_left (sp ++ 34 :: m ++ [34])) with (34 :: m ++ [34]) by (destruct Hsp as [-> | ->]; reflexivity).
  replace (rev (34 :: m ++ [34])) with (34 :: rev m ++ [34]) by (cbn [rev]; rewrite rev_app_distr; reflexivity).
  change (trim_left (34 :: rev m ++ [34])) with (34 :: rev m ++ [34]).
  cbn [rev]. rewrite rev_app_distr, rev_involutive. reflexivity.
Qed.

Lemma sc_unquote_quote v s : bytes v -> sc_unquote (po_go_quote v) s = Ok (v, s).
Proof. intro H. unfold sc_unquote. rewrite unquote_quote by exact H. reflexivity. Qed.

(* continuation lines *)
Lemma sc_quo_more_lines : forall pieces r tail e fuel l0,
  Forall bytes pieces -> no_quote_next tail -> (length pieces + length tail < fuel)%nat ->
  sc_quo_more fuel r (scan_of (l0 :: map po_go_quote pieces ++ tail) e) = Ok (r ++ concat pieces, scan_of tail e).
Proof.
  induction pieces as [|p ps IH]; intros r tail e fuel l0 Hb Hq Hf.
  - cbn [map app concat]. rewrite app_nil_r. destruct fuel as [|fuel]; [lia|]. cbn [sc_quo_more].
    rewrite sc_scan_of. destruct tail as [|t tail]; [reflexivity|].
    cbn [negb]. cbn [scan_of hd sc_cur]. cbn [no_quote_next] in Hq.
    destruct t as [|c t]; [reflexivity|]. destruct (N.eq_dec c 34) as [->|Hne]; [contradiction|].
    destruct c as [|p]; [reflexivity|]. do 6 (destruct p as [p|p|]; try reflexivity). congruence.
  - cbn [map app concat]. destruct fuel as [|fuel]; [lia|]. cbn [sc_quo_more]. rewrite sc_scan_of. cbn [negb].
    cbn [scan_of hd sc_cur]. unfold po_go_quote at 1. fold (po_go_quote p).
    inversion Hb as [|? ? Hp Hps]; subst.
    rewrite sc_unquote_quote by exact Hp. cbn [bind].
    change {| sc_cur := po_go_quote p; sc_rest := tl (po_go_quote p :: map po_go_quote ps ++ tail); sc_err := e |}
      with (scan_of (po_go_quote p :: map po_go_quote ps ++ tail) e).
    rewrite IH; [rewrite <- app_assoc; reflexivity|exact Hps|exact Hq|cbn [length] in Hf; lia].
Qed.

Lemma concat_split_nl : forall s cur, concat (split_nl cur s) = cur ++ s.
Proof.
  induction s as [|c s IH]; intro cur; cbn [split_nl].
  - destruct cur; cbn; rewrite ?app_nil_r; reflexivity.
  - destruct (c =? 10) eqn:E.
    + cbn [concat]. rewrite IH. apply N.eqb_eq in E. subst. rewrite <- app_assoc. reflexivity.
    + rewrite IH, <- app_assoc. reflexivity.
Qed.
Lemma bytes_app a c : bytes a -> bytes c -> bytes (a ++ c).
Proof. apply Forall_app_2. Qed.
Lemma bytes_split_nl : forall s cur, bytes cur -> bytes s -> Forall bytes (split_nl cur s).
Proof.
  induction s as [|c s IH]; intros cur Hc Hs; cbn [split_nl].
  - destruct cur; [constructor|]. constructor; [exact Hc|constructor].
  - inversion Hs as [|? ? Hc0 Hs0]; subst. destruct (c =? 10).
    + constructor.
      * apply bytes_app; [exact Hc|]. constructor; [lia|constructor].
      * apply IH; [constructor|exact Hs0].
    + apply IH; [|exact Hs0]. apply bytes_app; [exact Hc|]. constructor; [exact Hc0|constructor].
Qed.

(* scanner.quo with the reader's prefix R reads what writer.quo wrote with the prefix R ++ sp, sp = "" or " "
   (Parse reads "msgctxt" / "msgid" / "msgid_plural" where the writer wrote "msgctxt " ...; "msgstr " and
   "msgstr[i] " are the same on both sides) *)
Theorem sc_quo_po_quo (R sp val : bstr) (tail : list bstr) (e : bool) :
  sp = [] \/ sp = [32] -> bytes val -> no_quote_next tail ->
  sc_quo R (scan_of (po_quo (R ++ sp) val ++ tail) e) = Ok (val, scan_of tail e).
Proof.
  intros Hsp Hb Hq. unfold po_quo.
  pose proof (trim_space_quoted sp) as Ht. specialize (fun m => Ht m Hsp).
  destruct (negb (contains val 10)) eqn:En.
  - cbn [app]. unfold sc_quo, sc_prefix, sc_txt. cbn [scan_of hd sc_cur].
    rewrite <- app_assoc, is_prefix_app_self, drop_app_len. unfold po_go_quote at 1.
    rewrite Ht. fold (po_go_quote val). rewrite sc_unquote_quote by exact Hb. cbn [bind].
    pose proof (sc_quo_more_lines [] val tail e (S (length (sc_rest (scan_of ((R ++ sp ++ po_go_quote val) :: tail) e))))
                  (R ++ sp ++ po_go_quote val) (Forall_nil _) Hq) as H.
    cbn [map app concat length scan_of tl sc_rest] in H. rewrite app_nil_r in H.
    apply H. lia.
  - cbn [app]. unfold sc_quo, sc_prefix, sc_txt. cbn [scan_of hd sc_cur].
    rewrite <- app_assoc, is_prefix_app_self, drop_app_len.
    change [34; 34] with (34 :: [] ++ [34]). rewrite Ht. cbn [app].
    assert (Hu : forall s, sc_unquote [34; 34] s = Ok ([], s)) by reflexivity. rewrite Hu. cbn [bind].
    pose proof (sc_quo_more_lines (split_nl [] val) [] tail e
                  (S (length (sc_rest (scan_of ((R ++ sp ++ [34; 34]) :: map po_go_quote (split_nl [] val) ++ tail) e))))
                  (R ++ sp ++ [34; 34]) (bytes_split_nl val [] (Forall_nil _) Hb) Hq) as H.
    rewrite concat_split_nl in H. cbn [app] in H. apply H.
    cbn [scan_of tl sc_rest]. rewrite app_length, map_length. lia.
Qed.

(* a field that is not there: the line carries another keyword *)
Lemma sc_quo_absent R s : sc_prefix R s = false -> sc_quo R s = Ok ([], s).
Proof. intro H. unfold sc_quo. rewrite H. reflexivity. Qed.

(* the message is followed by a blank line (File.WriteTo writes one) or by the end of the input *)
Definition blank_next (tail : list bstr) : Prop := match tail with [] => True | l :: _ => l = [] end.

Lemma blank_no_quote tail : blank_next tail -> no_quote_next tail.
Proof. destruct tail as [|l t]; cbn; [auto|]. intros ->. exact I. Qed.
Lemma blank_no_prefix P tail e : P <> [] -> blank_next tail -> sc_prefix P (scan_of tail e) = false.
Proof.
  intros HP H. unfold sc_prefix. destruct tail as [|l t]; cbn [scan_of hd sc_cur]; [|cbn in H; subst l];
    destruct P; [congruence|reflexivity|congruence|reflexivity].
Qed.

Lemma po_quo_first P val : exists x more, po_quo P val = (P ++ x) :: more.
Proof. unfold po_quo. destruct (negb (contains val 10)); eauto. Qed.

(* writer.opt / scanner.quo *)
Lemma sc_quo_po_opt (R val : bstr) (tail : list bstr) (e : bool) :
  bytes val -> no_quote_next tail -> (val = [] -> sc_prefix R (scan_of tail e) = false) ->
  sc_quo R (scan_of (po_opt (R ++ [32]) val ++ tail) e) = Ok (val, scan_of tail e).
Proof.
  intros Hb Hq Habs. unfold po_opt. destruct val as [|c v].
  - cbn [app]. apply sc_quo_absent. auto.
  - apply sc_quo_po_quo; auto.
Qed.

Lemma msgstr_n_nonempty i : msgstr_n i <> [].
Proof. unfold msgstr_n, p_msgstr_open. cbn [app]. discriminate. Qed.
Lemma msgstr_n_not_singular i x more e : sc_prefix p_msgstr (scan_of ((msgstr_n i ++ x) :: more) e) = false.
Proof. reflexivity. Qed.

(* scanner.msgstr's loop over msgstr[i] *)
Lemma sc_msgstr_n_plural : forall vals acc tail e fuel,
  Forall bytes vals -> blank_next tail -> (length vals < fuel)%nat ->
  sc_msgstr_n fuel acc (scan_of (po_plural_from (length acc) vals ++ tail) e) = Ok (acc ++ vals, scan_of tail e).
Proof.
  induction vals as [|v vs IH]; intros acc tail e fuel Hb Ht Hf; destruct fuel as [|fuel]; try (cbn in Hf; lia).
  - cbn [po_plural_from app sc_msgstr_n]. rewrite blank_no_prefix by (auto using msgstr_n_nonempty). rewrite app_nil_r. reflexivity.
  - inversion Hb as [|? ? Hv Hvs]; subst. cbn [po_plural_from sc_msgstr_n]. rewrite <- app_assoc.
    destruct (po_quo_first (msgstr_n (length acc)) v) as (x & more & Ef).
    assert (Hpre : sc_prefix (msgstr_n (length acc)) (scan_of (po_quo (msgstr_n (length acc)) v ++ po_plural_from (S (length acc)) vs ++ tail) e) = true).
    { rewrite Ef. unfold sc_prefix. cbn [app scan_of hd sc_cur]. apply is_prefix_app_self. }
    rewrite Hpre.
    pose proof (sc_quo_po_quo (msgstr_n (length acc)) [] v (po_plural_from (S (length acc)) vs ++ tail) e (or_introl eq_refl) Hv) as Hq.
    rewrite app_nil_r in Hq. rewrite Hq.
    + cbn [bind]. replace (S (length acc)) with (length (acc ++ [v])) by (rewrite app_length; cbn; lia).
      rewrite IH; [rewrite <- app_assoc; reflexivity|exact Hvs|exact Ht|cbn [length] in Hf; lia].
    + destruct vs as [|v2 vs2]; [cbn [po_plural_from app]; apply blank_no_quote; exact Ht|].
      cbn [po_plural_from]. destruct (po_quo_first (msgstr_n (S (length acc))) v2) as (x2 & more2 & E2). rewrite E2.
      cbn [app no_quote_next]. unfold msgstr_n, p_msgstr_open. cbn [app]. exact I.
Qed.

Lemma po_plural_from_length vals : forall i, (length vals <= length (po_plural_from i vals))%nat.
Proof.
  induction vals as [|v vs IH]; intro i; cbn [po_plural_from length]; [lia|].
  destruct (po_quo_first (msgstr_n i) v) as (x & more & E). rewrite E. cbn [app length]. rewrite app_length.
  specialize (IH (S i)). lia.
Qed.

Lemma sc_msgstr_plural vals tail e : vals <> [] -> Forall bytes vals -> blank_next tail ->
  sc_msgstr (scan_of (po_plural_from 0 vals ++ tail) e) = Ok (vals, scan_of tail e).
Proof.
  intros Hne Hvals Ht. unfold sc_msgstr. destruct vals as [|v vs]; [congruence|].
  assert (Hnp : sc_prefix p_msgstr (scan_of (po_plural_from 0 (v :: vs) ++ tail) e) = false).
  { cbn [po_plural_from]. destruct (po_quo_first (msgstr_n 0) v) as (x & more & E). rewrite E. reflexivity. }
  rewrite Hnp.
  pose proof (sc_msgstr_n_plural (v :: vs) [] tail e (S (S (length (sc_rest (scan_of (po_plural_from 0 (v :: vs) ++ tail) e))))) Hvals Ht) as H.
  cbn [app] in H. change (length (@nil bstr)) with 0%nat in H. apply H.
  cbn [scan_of sc_rest]. pose proof (po_plural_from_length (v :: vs) 0) as Hlen.
  destruct (po_plural_from 0 (v :: vs)) as [|l0 ls] eqn:El; [cbn in Hlen; lia|].
  cbn [app tl length] in *. rewrite app_length. lia.
Qed.

Definition norm_str (m : po_fields) : list bstr :=
  match pf_id_plural m with
  | [] => [hd [] (pf_str m)]
  | _ => match pf_str m with [] => [[]] | l => l end
  end.

Definition fields_bytes (m : po_fields) : Prop :=
  bytes (pf_ctxt m) /\ bytes (pf_id m) /\ bytes (pf_id_plural m) /\ Forall bytes (pf_str m).

(* what Message.WriteTo writes for msgctxt / msgid / msgid_plural / msgstr is what Parse reads back *)
Theorem po_fields_roundtrip (m : po_fields) (tail : list bstr) (e : bool) :
  fields_bytes m -> blank_next tail ->
  po_read_fields (scan_of (po_write_fields m ++ tail) e) =
  Ok ({| pf_ctxt := pf_ctxt m; pf_id := pf_id m; pf_id_plural := pf_id_plural m; pf_str := norm_str m |}, scan_of tail e).
Proof.
  intros (Hc & Hi & Hp & Hs) Ht. unfold po_read_fields, po_write_fields.
  set (strl := match pf_id_plural m with [] => po_msgstr (pf_str m) | _ => po_plural (pf_str m) end).
  assert (Hstr_first : exists x more, strl = ((b "msgstr") ++ x) :: more).
  { subst strl. destruct (pf_id_plural m).
    - unfold po_msgstr.
      assert (Hx : forall v, exists x more, po_quo p_msgstr v = (b "msgstr" ++ x) :: more).
      { intro v. destruct (po_quo_first p_msgstr v) as (x & more & E). rewrite E. exists (32 :: x), more. reflexivity. }
      destruct (pf_str m) as [|v ?]; apply Hx.
    - unfold po_plural. destruct (pf_str m) as [|v vs].
      + destruct (po_quo_first (msgstr_n 0) []) as (x & more & E). rewrite E. unfold msgstr_n, p_msgstr_open. cbn [app]. eexists; eexists; reflexivity.
      + cbn [po_plural_from]. destruct (po_quo_first (msgstr_n 0) v) as (x & more & E). rewrite E. unfold msgstr_n, p_msgstr_open. cbn [app]. eexists; eexists; reflexivity. }
  destruct Hstr_first as (sx & smore & Estr).
  rewrite <- !app_assoc.
  (* msgctxt *)
  change p_msgctxt with (r_msgctxt ++ [32]).
  rewrite sc_quo_po_opt; [cbn [bind]|exact Hc| |].
  2:{ destruct (po_quo_first p_msgid (pf_id m)) as (x & more & E). rewrite E. exact I. }
  2:{ intros _. destruct (po_quo_first p_msgid (pf_id m)) as (x & more & E). rewrite E. reflexivity. }
  (* msgid *)
  change p_msgid with (r_msgid ++ [32]).
  rewrite sc_quo_po_quo; [cbn [bind]|right; reflexivity|exact Hi|].
  2:{ destruct (pf_id_plural m) as [|c0 ip] eqn:Eip.
      - cbn [po_opt app]. rewrite Estr. exact I.
      - unfold po_opt. destruct (po_quo_first p_msgid_plural (c0 :: ip)) as (x & more & E). rewrite E. exact I. }
  (* msgid_plural *)
  change p_msgid_plural with (r_msgid_plural ++ [32]).
  rewrite sc_quo_po_opt; [cbn [bind]|exact Hp| |].
  2:{ rewrite Estr. exact I. }
  2:{ intros _. rewrite Estr. reflexivity. }
  (* msgstr *)
  subst strl. unfold norm_str. destruct (pf_id_plural m) as [|c0 ip].
  - unfold sc_msgstr, po_msgstr.
    assert (Hv : bytes (hd [] (pf_str m))) by (destruct (pf_str m); [constructor|inversion Hs; assumption]).
    replace (match pf_str m with [] => po_quo p_msgstr [] | v :: _ => po_quo p_msgstr v end) with (po_quo p_msgstr (hd [] (pf_str m)))
      by (destruct (pf_str m); reflexivity).
    destruct (po_quo_first p_msgstr (hd [] (pf_str m))) as (x & more & E).
    assert (Hpre : sc_prefix p_msgstr (scan_of (po_quo p_msgstr (hd [] (pf_str m)) ++ tail) e) = true).
    { rewrite E. unfold sc_prefix. cbn [app scan_of hd sc_cur]. apply is_prefix_app_self. }
    rewrite Hpre.
    pose proof (sc_quo_po_quo p_msgstr [] (hd [] (pf_str m)) tail e (or_introl eq_refl) Hv (blank_no_quote _ Ht)) as Hq.
    rewrite app_nil_r in Hq. rewrite Hq. reflexivity.
  - unfold po_plural. destruct (pf_str m) as [|v0 vs0].
    + pose proof (sc_msgstr_plural [[]] tail e ltac:(discriminate) ltac:(repeat constructor) Ht) as H.
      cbn [po_plural_from] in H. rewrite app_nil_r in H. rewrite H. reflexivity.
    + pose proof (sc_msgstr_plural (v0 :: vs0) tail e ltac:(discriminate) Hs Ht) as H.
      rewrite H. reflexivity.
Qed.

End Po.
