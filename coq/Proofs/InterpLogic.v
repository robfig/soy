(* A reusable proof layer for Model/Interp.v (the soyhtml tree walker).

   PART A  the state monad [M]: unfolding equations, faults, Hoare triples
           [triple P m Q] (the postcondition sees the initial state, the
           outcome and the final state), the bind / consequence / frame rules,
           and one exact characterisation per primitive ([write], [write_all],
           [m_set], [m_lookup], [m_push], [m_pop], [fresh_*], the [set_*]
           modifications, the buffer push/pop of [render_block], the
           save/restore of [call_enter]), and what Execute makes of a walk's
           result ([finish]; [render] is [render_with] of [walk]).

   PART B  a GENERIC induction principle for the walker.  A "walker logic" for
           a predicate on computations [Phi : forall A, M A -> Prop] is the list
           of closure conditions in [walker_logic]: [Phi] respects pointwise
           equality, holds of [ret]/[fail]/(acceptable) [lift], is closed under
           [mbind], holds of every primitive, and is closed under the four
           "brackets" of the walker whose two halves do not satisfy [Phi]
           separately (scope push..pop, [eval]'s restore of s.node,
           [render_block]'s buffer push..pop, [call_enter]'s save..restore) and
           under the two state reads ([mode], [ctx]).  Theorem [walk_logic]:
           then [Phi (walk cf fuel n)] for every fuel and node, with one lemma
           per hoisted loop ([phi_eval] ... [phi_walk_node]) proved for
           [walk_body cf w] from the hypothesis on [w].
           Because [Phi] is a predicate on the COMPUTATION (not on one run),
           the same principle serves unary invariants (Part C) and two-run
           simulations (Proofs/WriterProofs.v: faulty vs fault-free writer).

   PART C  the unary instance: for a state invariant [I], a reflexive and
           transitive step relation [R] on normally-returning runs, a relation
           [E] from the initial to the final state of a run that ends in a
           fault, and a predicate [allowed] on faults, [inv_spec I R E allowed m]
           says that [m] started in an [I]-state either returns normally in an
           [I]-state [R]-related to the start, or ends in an allowed fault in
           an [E]-related state.  [inv_logic] / [inv_walk]: if every primitive
           does ([inv_conditions]), so does the walker.  First client at the
           end of the file: the top-level output only grows ([out_grows]).

   Companions: Proofs/InterpSub.v states one unfolding of the walker for a relation between two
   runs, with hypotheses about the recursive call only for the nodes [walk_body cf w n] hands to
   [w]; read on one run it is the node-indexed form of Part B.  Proofs/InterpGuard.v (the nodes
   satisfying a guard [deep g n], with a separate predicate for the walks of callees' template
   nodes -- for properties that are false of some node kinds) and Proofs/InterpRel.v (the
   relational form of that; used to show that an instrumented walker is the walker,
   Proofs/ModeProofs.v) are instances of it.

   Which principle to instantiate: for a uniform invariant of one run,
   [inv_walk] (Part C; Proofs/SafetyProofs.v, ModeProofs.v, PurityProofs.v,
   ErrPosProofs.v).  For a relational or otherwise bespoke predicate on
   computations that holds of every node, build a [walker_logic] record and
   apply [walk_logic] (Proofs/WriterProofs.v, SafetyMarker.v).  For a
   specification that depends on the node being walked, [bphi_walk_body] of
   Proofs/InterpSub.v or one of its instances above, closed by induction on the
   fuel ([walk_S]).  Proofs/WalkRel.v ([rel_walk_body]) is the instance for
   relations that hold of every step leaving call depth and position alone
   (Proofs/ErrPosProofs.v, Proofs/ErrPathProofs.v). *)
From Soy Require Import Model.Bytes Model.Num Model.Values Model.Outcome Model.Ast
  Model.Escape Model.Directives Model.Print Generated.Tables Model.Interp.
Require Import Lia.
Open Scope N_scope.

(* PART A.  The monad *)

(* everything an outcome can be apart from [Ok] *)
Inductive fault := FErr (m : bstr) | FCrash (m : bstr) | FDiverge | FOutOfFuel | FOutOfModel.

Definition of_fault {A} (e : fault) : outcome A :=
  match e with
  | FErr m => Err m | FCrash m => Crash m | FDiverge => Diverge
  | FOutOfFuel => OutOfFuel | FOutOfModel => OutOfModel
  end.
Definition classify {A} (r : outcome A) : A + fault :=
  match r with
  | Ok x => inl x | Err m => inr (FErr m) | Crash m => inr (FCrash m)
  | Diverge => inr FDiverge | OutOfFuel => inr FOutOfFuel | OutOfModel => inr FOutOfModel
  end.

Lemma classify_ok {A} (r : outcome A) x : classify r = inl x -> r = Ok x.
Proof. destruct r; cbn; intros H; inversion H; reflexivity. Qed.
Lemma classify_fault {A} (r : outcome A) e : classify r = inr e -> r = of_fault e.
Proof. destruct r; cbn; intros H; inversion H; reflexivity. Qed.
Lemma classify_of_fault {A} e : classify (@of_fault A e) = inr e.
Proof. destruct e; reflexivity. Qed.
Lemma of_fault_not_ok {A} e (x : A) : of_fault e <> Ok x.
Proof. destruct e; discriminate. Qed.

Lemma mbind_eq {A B} (m : M A) (f : A -> M B) st :
  mbind m f st = match classify (fst (m st)) with
                 | inl x => f x (snd (m st))
                 | inr e => (of_fault e, snd (m st))
                 end.
Proof. unfold mbind. destruct (m st) as [[] s]; reflexivity. Qed.

Lemma mbind_ok {A B} (m : M A) (f : A -> M B) st x st' :
  m st = (Ok x, st') -> mbind m f st = f x st'.
Proof. intros H. unfold mbind. rewrite H. reflexivity. Qed.
Lemma mbind_fault {A B} (m : M A) (f : A -> M B) st e st' :
  m st = (of_fault e, st') -> mbind m f st = (of_fault e, st').
Proof. intros H. unfold mbind. rewrite H. destruct e; reflexivity. Qed.

(* inversion of a bind: either the first part faulted, or it returned and the rest ran *)
Lemma mbind_inv {A B} (m : M A) (f : A -> M B) st r st2 :
  mbind m f st = (r, st2) ->
  (exists x st1, m st = (Ok x, st1) /\ f x st1 = (r, st2)) \/
  (exists e, m st = (of_fault e, st2) /\ r = of_fault e).
Proof.
  unfold mbind. destruct (m st) as [[x|e|e| | | ] st1]; intros H.
  - left. exists x, st1. split; [reflexivity | exact H].
  - right. exists (FErr e). inversion H. split; reflexivity.
  - right. exists (FCrash e). inversion H. split; reflexivity.
  - right. exists FDiverge. inversion H. split; reflexivity.
  - right. exists FOutOfFuel. inversion H. split; reflexivity.
  - right. exists FOutOfModel. inversion H. split; reflexivity.
Qed.

Lemma mbind_assoc {A B C} (m : M A) (f : A -> M B) (g : B -> M C) st :
  mbind (mbind m f) g st = mbind m (fun x => mbind (f x) g) st.
Proof. unfold mbind. destruct (m st) as [[] s]; reflexivity. Qed.
Lemma mbind_ret_l {A B} (x : A) (f : A -> M B) st : mbind (ret x) f st = f x st.
Proof. reflexivity. Qed.
Lemma mbind_ext {A B} (m : M A) (f g : A -> M B) st :
  (forall x s, f x s = g x s) -> mbind m f st = mbind m g st.
Proof. intros H. unfold mbind. destruct (m st) as [[] s]; try reflexivity. apply H. Qed.

Lemma walk_body_eq cf w n st : walk_body cf w n st = walk_node cf w n (set_cur st (pos_of n)).
Proof. reflexivity. Qed.
Lemma walk_S cf fuel n : walk cf (S fuel) n = walk_body cf (walk cf fuel) n.
Proof. reflexivity. Qed.
Lemma walk_O cf n : walk cf O n = lift OutOfFuel.
Proof. reflexivity. Qed.

(* Hoare triples.  [Q s0 r s1]: started in [s0], outcome [r], final state [s1]. *)

Definition triple {A} (P : mstate -> Prop) (m : M A) (Q : mstate -> outcome A -> mstate -> Prop) : Prop :=
  forall st r st', P st -> m st = (r, st') -> Q st r st'.

Lemma triple_conseq {A} (P P' : mstate -> Prop) (m : M A) (Q Q' : mstate -> outcome A -> mstate -> Prop) :
  triple P m Q -> (forall st, P' st -> P st) -> (forall s0 r s1, P' s0 -> Q s0 r s1 -> Q' s0 r s1) ->
  triple P' m Q'.
Proof. intros H HP HQ st r st' Hp Hm. apply HQ; [exact Hp|]. eapply H; eauto. Qed.

Lemma triple_conj {A} P (m : M A) Q1 Q2 :
  triple P m Q1 -> triple P m Q2 -> triple P m (fun s0 r s1 => Q1 s0 r s1 /\ Q2 s0 r s1).
Proof. intros H1 H2 st r st' Hp Hm. split; eauto. Qed.

Lemma triple_ret {A} (x : A) P : triple P (ret x) (fun s0 r s1 => r = Ok x /\ s1 = s0).
Proof. intros st r st' _ H. inversion H. split; reflexivity. Qed.
Lemma triple_fail {A} e P : triple P (@fail A e) (fun s0 r s1 => r = Err e /\ s1 = s0).
Proof. intros st r st' _ H. inversion H. split; reflexivity. Qed.
Lemma triple_lift {A} (o : outcome A) P : triple P (lift o) (fun s0 r s1 => r = o /\ s1 = s0).
Proof. intros st r st' _ H. inversion H. split; reflexivity. Qed.
Lemma triple_get P : triple P get (fun s0 r s1 => r = Ok s0 /\ s1 = s0).
Proof. intros st r st' _ H. inversion H. split; reflexivity. Qed.
Lemma triple_modify f P : triple P (modify f) (fun s0 r s1 => r = Ok tt /\ s1 = f s0).
Proof. intros st r st' _ H. inversion H. split; reflexivity. Qed.

(* the bind rule: [Qm] is the intermediate assertion; a fault of [m] is the fault of the bind *)
Lemma triple_bind {A B} P (m : M A) (f : A -> M B) Qm (Q : mstate -> outcome B -> mstate -> Prop) :
  triple P m Qm ->
  (forall s0 x, triple (fun s1 => P s0 /\ Qm s0 (Ok x) s1) (f x) (fun _ r s2 => Q s0 r s2)) ->
  (forall s0 e s1, P s0 -> Qm s0 (of_fault e) s1 -> Q s0 (of_fault e) s1) ->
  triple P (mbind m f) Q.
Proof.
  intros Hm Hf He st r st2 Hp Hb.
  destruct (mbind_inv _ _ _ _ _ Hb) as [(x & st1 & H1 & H2) | (e & H1 & ->)].
  - eapply (Hf st x st1); [split; [exact Hp | eapply Hm; eauto] | exact H2].
  - apply He; [exact Hp | eapply Hm; eauto].
Qed.

Definition dec_calls (cl : option nat) : option nat :=
  match cl with Some (S n) => Some n | x => x end.

Inductive write_res (w : bstr) (st : mstate) : outcome unit -> mstate -> Prop :=
| WBuffered buf rest :                  (* inside renderBlock: bytes.Buffer never fails *)
    bufs st = buf :: rest ->
    write_res w st (Ok tt) (set_bufs st ((w :: buf) :: rest))
| WRefused :                            (* the writer fails this call outright *)
    bufs st = [] -> calls_left st = Some O ->
    write_res w st (Err e_write) st
| WShort k :                            (* short write: k bytes accepted, then the error *)
    bufs st = [] -> calls_left st <> Some O -> bytes_left st = Some k -> (k < N.of_nat (length w)) ->
    write_res w st (Err e_write) (set_out st (take (N.to_nat k) w :: out st) (dec_calls (calls_left st)) (Some 0))
| WAccepted :
    bufs st = [] -> calls_left st <> Some O ->
    (forall k, bytes_left st = Some k -> N.of_nat (length w) <= k) ->
    write_res w st (Ok tt)
      (set_out st (w :: out st) (dec_calls (calls_left st))
               (match bytes_left st with Some k => Some (k - N.of_nat (length w)) | None => None end)).

Lemma write_cases w st : write_res w st (fst (write w st)) (snd (write w st)).
Proof.
  destruct st as [cx md cu tm dp ou bu cl bl ni ub sw]. unfold write. cbn [bufs calls_left bytes_left].
  destruct bu as [|buf rest]; [|apply WBuffered; reflexivity].
  destruct cl as [[|n]|]; [apply WRefused; reflexivity | |];
    (destruct bl as [k|]; [destruct (N.of_nat (length w) <=? k) eqn:Hle|]; cbn [fst snd];
     [ apply WAccepted; [reflexivity | discriminate | cbn; intros k' Hk'; inversion Hk'; subst; apply N.leb_le, Hle]
     | apply WShort; [reflexivity | discriminate | reflexivity | apply N.leb_gt, Hle]
     | apply WAccepted; [reflexivity | discriminate | cbn; intros k' Hk'; discriminate Hk'] ]).
Qed.

Lemma write_inv w st r st' : write w st = (r, st') -> write_res w st r st'.
Proof. intros H. pose proof (write_cases w st) as Hc. rewrite H in Hc. exact Hc. Qed.

Lemma triple_write w P : triple P (write w) (fun s0 r s1 => write_res w s0 r s1).
Proof. intros st r st' _ H. apply write_inv. exact H. Qed.

(* a write never returns anything but Ok or the write error *)
Lemma write_outcome w st : fst (write w st) = Ok tt \/ fst (write w st) = Err e_write.
Proof. destruct (write_cases w st); auto. Qed.

Lemma write_all_nil st : write_all [] st = (Ok tt, st).
Proof. reflexivity. Qed.
Lemma write_all_cons w ws : write_all (w :: ws) = (_ <-- write w ;;; write_all ws).
Proof. reflexivity. Qed.

(* [m_set]: the write lands on the top frame; a caller-owned top frame is recorded *)
Lemma m_set_eq k v st :
  m_set k v st =
  match ctx st with
  | [] => (Err e_index, st)
  | f :: _ =>
      (Ok tt, set_ctx (match f_origin f with OExternal id => note_shared st id | OFresh => st end)
                      (sc_set (ctx st) k v))
  end.
Proof. unfold m_set. destruct (ctx st) as [|f r] eqn:Hc; [reflexivity|]. cbn. reflexivity. Qed.

Lemma m_set_fresh k v st f r :
  ctx st = f :: r -> f_origin f = OFresh ->
  m_set k v st = (Ok tt, set_ctx st (sc_set (ctx st) k v)).
Proof. intros Hc Ho. rewrite m_set_eq, Hc, Ho. reflexivity. Qed.

Lemma m_lookup_eq k st :
  m_lookup k st = match sc_lookup (ctx st) k with
                  | Some v => (Ok v, st)
                  | None => (Ok VUndef, bump_unbound st)
                  end.
Proof. reflexivity. Qed.
Lemma m_push_eq st : m_push st = (Ok tt, set_ctx st (sc_push (ctx st))).
Proof. reflexivity. Qed.
Lemma m_pop_eq st : m_pop st = (Ok tt, set_ctx st (sc_pop (ctx st))).
Proof. reflexivity. Qed.
Lemma fresh_list_eq l st :
  fresh_list l st = match l with [] => (Ok (VList 1 []), st) | _ => (Ok (VList (next_id st) l), bump_id st) end.
Proof. destruct l; reflexivity. Qed.
Lemma fresh_list_or_nil_eq l st :
  fresh_list_or_nil l st = match l with [] => (Ok (VList 0 []), st) | _ => (Ok (VList (next_id st) l), bump_id st) end.
Proof. destruct l; reflexivity. Qed.
Lemma fresh_map_eq m st : fresh_map m st = (Ok (VMap (next_id st) m), bump_id st).
Proof. reflexivity. Qed.

Definition buf_pushed (st : mstate) : mstate := set_bufs st ([] :: bufs st).
Definition entered (st : mstate) (callee : template) (cd : scope) : mstate :=
  set_depth (set_mode (set_ctx st (sc_enter cd)) (call_mode (t_ns_autoescape callee))) (S (depth_ st)).
Definition left (st st' : mstate) : mstate :=      (* the caller's scope/mode/depth are back *)
  set_depth (set_mode (set_ctx st' (ctx st)) (mode st)) (depth_ st).

Lemma render_block_eq w body st :
  render_block w body st =
  match classify (fst (w body (buf_pushed st))) with
  | inl _ =>
      let st2 := snd (w body (buf_pushed st)) in
      match bufs st2 with
      | buf :: rest => (Ok (concat_b (rev buf)), set_bufs st2 rest)
      | [] => (Err e_impossible, st2)
      end
  | inr e => (of_fault e, snd (w body (buf_pushed st)))
  end.
Proof.
  unfold render_block, buf_pushed. unfold mbind at 1. cbn [modify].
  rewrite mbind_eq. destruct (classify (fst (w body _))) eqn:Hc; [|reflexivity].
  cbn. destruct (bufs (snd (w body _))); reflexivity.
Qed.

Lemma call_enter_eq w callee cd st :
  call_enter w callee cd st =
  let r := w (t_node callee) (entered st callee cd) in
  (match classify (fst r) with inl _ => Ok VUndef | inr e => of_fault e end, left st (snd r)).
Proof.
  unfold call_enter, entered, left. cbn.
  destruct (w (t_node callee) _) as [[] s]; reflexivity.
Qed.

Lemma eval_eq w e st :
  eval w e st =
  match classify (fst (w e st)) with
  | inl v => (Ok v, set_cur (snd (w e st)) (cur st))
  | inr f => (of_fault f, snd (w e st))
  end.
Proof.
  unfold eval. cbn. unfold mbind. destruct (w e st) as [[] s]; reflexivity.
Qed.

(* renderer.go Execute around the walk: errRecover / errFromNode make the result of the walk's outcome and final
   state.  [render], and [render_x] of Model/InterpExt.v, are [render_with] of their walkers. *)
Definition finish (cf : cfg) (name : bstr) (run : outcome value * mstate) : render_result :=
  let '(r, st) := run in
  let mk o file line := {| rr_outcome := o; rr_writes := rev (out st); rr_file := file; rr_line := line;
                           rr_unbound := unbound st; rr_shared_writes := shared_writes st |} in
  match r with
  | Ok _ => mk (Ok tt) [] 0
  | Err m =>
      match assoc_s name (r_sources (c_reg cf)), assoc_s name (r_files (c_reg cf)) with
      | Some src, Some file =>
          match line_number src (cur st) with
          | Some l => mk (Err m) file l
          | None => mk (Crash e_index) [] 0
          end
      | _, _ => mk (Err m) [] 0
      end
  | Crash m => mk (Crash m) [] 0
  | Diverge => mk Diverge [] 0
  | OutOfFuel => mk OutOfFuel [] 0
  | OutOfModel => mk OutOfModel [] 0
  end.

Definition render_with (wk : template -> M value) (cf : cfg) (name : bstr) (data_id : N) (data : list (bstr * value))
           (cl : option nat) (bl : option N) (first_id : N) : render_result :=
  match find_template (r_templates (c_reg cf)) name with
  | None => {| rr_outcome := Err e_notemplate; rr_writes := []; rr_file := []; rr_line := 0; rr_unbound := 0; rr_shared_writes := [] |}
  | Some t => finish cf name (wk t (init_state (sc_enter (new_scope data_id data)) (entry_mode (t_ns_autoescape t)) name cl bl first_id))
  end.

Lemma render_eq cf fuel name id data cl bl fid :
  render cf fuel name id data cl bl fid = render_with (fun t => walk cf fuel (t_node t)) cf name id data cl bl fid.
Proof. reflexivity. Qed.

Lemma render_with_none wk cf name id data cl bl fid :
  find_template (r_templates (c_reg cf)) name = None ->
  render_with wk cf name id data cl bl fid =
  {| rr_outcome := Err e_notemplate; rr_writes := []; rr_file := []; rr_line := 0; rr_unbound := 0; rr_shared_writes := [] |}.
Proof. intros H. unfold render_with. rewrite H. reflexivity. Qed.

Lemma render_with_ext wk wk' cf name id data cl bl fid :
  (forall t st, wk t st = wk' t st) -> render_with wk cf name id data cl bl fid = render_with wk' cf name id data cl bl fid.
Proof. intros H. unfold render_with. destruct (find_template _ name); [rewrite H|]; reflexivity. Qed.

(* the walk's final state decides every field but outcome, file and line *)
Lemma finish_fields cf name r st :
  exists o file line, finish cf name (r, st) =
    {| rr_outcome := o; rr_writes := rev (out st); rr_file := file; rr_line := line;
       rr_unbound := unbound st; rr_shared_writes := shared_writes st |}.
Proof.
  unfold finish. destruct r; eauto.
  destruct (assoc_s name (r_sources (c_reg cf))); eauto.
  destruct (assoc_s name (r_files (c_reg cf))); eauto.
  destruct (line_number _ _); eauto.
Qed.
Lemma finish_writes cf name r st : rr_writes (finish cf name (r, st)) = rev (out st).
Proof. destruct (finish_fields cf name r st) as (o & f & l & ->). reflexivity. Qed.
Lemma finish_shared cf name r st : rr_shared_writes (finish cf name (r, st)) = shared_writes st.
Proof. destruct (finish_fields cf name r st) as (o & f & l & ->). reflexivity. Qed.
(* an error is reported as it is, unless Registry.LineNumber panics inside errRecover *)
Lemma finish_err cf name m st :
  rr_outcome (finish cf name (Err m, st)) = Err m \/ rr_outcome (finish cf name (Err m, st)) = Crash e_index.
Proof.
  unfold finish. destruct (assoc_s name (r_sources (c_reg cf))); [|left; reflexivity].
  destruct (assoc_s name (r_files (c_reg cf))); [|left; reflexivity].
  destruct (line_number _ _); [left | right]; reflexivity.
Qed.

(* projections through the setters (all by computation; collected for [rewrite]/[autorewrite]) *)
Lemma ctx_set_ctx st c : ctx (set_ctx st c) = c. Proof. reflexivity. Qed.
Lemma out_set_ctx st c : out (set_ctx st c) = out st. Proof. reflexivity. Qed.
Lemma bufs_set_ctx st c : bufs (set_ctx st c) = bufs st. Proof. reflexivity. Qed.
Lemma shared_set_ctx st c : shared_writes (set_ctx st c) = shared_writes st. Proof. reflexivity. Qed.
Lemma ctx_set_cur st p : ctx (set_cur st p) = ctx st. Proof. reflexivity. Qed.
Lemma out_set_cur st p : out (set_cur st p) = out st. Proof. reflexivity. Qed.
Lemma bufs_set_cur st p : bufs (set_cur st p) = bufs st. Proof. reflexivity. Qed.
Lemma ctx_set_out st o c k : ctx (set_out st o c k) = ctx st. Proof. reflexivity. Qed.
Lemma out_set_out st o c k : out (set_out st o c k) = o. Proof. reflexivity. Qed.
Lemma bufs_set_out st o c k : bufs (set_out st o c k) = bufs st. Proof. reflexivity. Qed.
Lemma ctx_set_bufs st x : ctx (set_bufs st x) = ctx st. Proof. reflexivity. Qed.
Lemma out_set_bufs st x : out (set_bufs st x) = out st. Proof. reflexivity. Qed.
Lemma bufs_set_bufs st x : bufs (set_bufs st x) = x. Proof. reflexivity. Qed.
Lemma ctx_left st st' : ctx (left st st') = ctx st. Proof. reflexivity. Qed.
Lemma out_left st st' : out (left st st') = out st'. Proof. reflexivity. Qed.
Lemma bufs_left st st' : bufs (left st st') = bufs st'. Proof. reflexivity. Qed.
Lemma shared_left st st' : shared_writes (left st st') = shared_writes st'. Proof. reflexivity. Qed.
Lemma ctx_entered st t cd : ctx (entered st t cd) = sc_enter cd. Proof. reflexivity. Qed.
Lemma out_entered st t cd : out (entered st t cd) = out st. Proof. reflexivity. Qed.
Lemma bufs_entered st t cd : bufs (entered st t cd) = bufs st. Proof. reflexivity. Qed.
Lemma shared_entered st t cd : shared_writes (entered st t cd) = shared_writes st. Proof. reflexivity. Qed.

(* PART B.  The generic induction principle *)

Section Generic.
Variable cf : cfg.
Variable Phi : forall A : Type, M A -> Prop.
Arguments Phi {A} _.
(* which results of the pure helper functions ([arith], [apply_func], ...) are acceptable to [lift] *)
Variable pure_ok : forall A : Type, outcome A -> Prop.
Arguments pure_ok {A} _.

Record walker_logic : Prop := {
  (* structure *)
  wl_ext : forall A (m m' : M A), (forall st, m st = m' st) -> Phi m -> Phi m';
  wl_ret : forall A (x : A), Phi (ret x);
  wl_fail : forall A e, Phi (@fail A e);
  wl_lift : forall A (o : outcome A), pure_ok o -> Phi (lift o);
  wl_bind : forall A B (m : M A) (f : A -> M B), Phi m -> (forall x, Phi (f x)) -> Phi (mbind m f);
  (* primitives *)
  wl_set_cur : forall p, Phi (modify (fun st => set_cur st p));
  wl_template_mode : forall ae, Phi (modify (fun st => set_mode st (template_mode (mode st) ae)));
  wl_write : forall w, Phi (write w);
  wl_set : forall k v, Phi (m_set k v);
  wl_lookup : forall k, Phi (m_lookup k);
  wl_fresh_list : forall l, Phi (fresh_list l);
  wl_fresh_list_or_nil : forall l, Phi (fresh_list_or_nil l);
  wl_fresh_map : forall m, Phi (fresh_map m);
  (* state reads *)
  wl_read_mode : forall B (f : N -> M B), (forall x, Phi (f x)) -> Phi (st <-- get ;;; f (mode st));
  wl_read_ctx : forall B (f : scope -> M B), (forall x, Phi (f x)) -> Phi (st <-- get ;;; f (ctx st));
  (* brackets *)
  wl_scoped : forall (m : M unit), Phi m -> Phi (_ <-- m_push ;;; _ <-- m ;;; _ <-- m_pop ;;; ret VUndef);
  wl_eval : forall (w : node -> M value) e, Phi (w e) -> Phi (eval w e);
  wl_block : forall (w : node -> M value) body, Phi (w body) -> Phi (render_block w body);
  wl_enter : forall (w : node -> M value) callee cd, Phi (w (t_node callee)) -> Phi (call_enter w callee cd);
}.

Record pure_sites : Prop := {
  ps_fuel : pure_ok (@OutOfFuel value);
  ps_arith : forall op x y, pure_ok (arith op x y);
  ps_compare : forall op x y, pure_ok (compare_op op x y);
  ps_string : forall v, pure_ok (value_string v);
  ps_print : forall m ds s, pure_ok (print_writes m ds s);
  (* only functions of the table reach [apply_func] *)
  ps_func : forall name ar vs, func_arities name = Some ar -> pure_ok (apply_func name vs);
}.

Hypothesis L : walker_logic.
Hypothesis PS : pure_sites.

(* [phi_bind]: the bind clause of the logic [L]; [phi_leaf]: the clause of a primitive.  Proofs/InterpSub.v,
   InterpExtProofs.v and SafetyUser.v define tactics of the same names over their own records. *)
Ltac phi_bind := apply (wl_bind L); [ | intro ].
Ltac phi_leaf :=
  first [ apply (wl_ret L) | apply (wl_fail L) | apply (wl_write L) | apply (wl_set L)
        | apply (wl_lookup L) | apply (wl_fresh_list L) | apply (wl_fresh_list_or_nil L)
        | apply (wl_fresh_map L) | apply (wl_set_cur L) | apply (wl_template_mode L) ].

Lemma phi_write_all ws : Phi (write_all ws).
Proof.
  induction ws as [|x r IH]; cbn [write_all]; [apply (wl_ret L)|].
  phi_bind; [apply (wl_write L) | exact IH].
Qed.

Section Body.
Variable w : node -> M value.
Hypothesis Hw : forall n, Phi (w n).

Lemma phi_eval e : Phi (eval w e).
Proof. apply (wl_eval L). apply Hw. Qed.

Lemma phi_evaldef e : Phi (evaldef w e).
Proof. unfold evaldef. phi_bind; [apply phi_eval|]. destruct x; phi_leaf. Qed.

Lemma phi_eval_list es : Phi (eval_list w es).
Proof.
  induction es as [|e r IH]; cbn [eval_list]; [phi_leaf|].
  phi_bind; [apply phi_eval|]. phi_bind; [exact IH|]. phi_leaf.
Qed.

Lemma phi_walk_list ns : Phi (walk_list w ns).
Proof.
  induction ns as [|x r IH]; cbn [walk_list]; [phi_leaf|].
  phi_bind; [apply Hw | exact IH].
Qed.

Lemma phi_render_block body : Phi (render_block w body).
Proof. apply (wl_block L). apply Hw. Qed.

Lemma phi_maplit_items l : Phi (maplit_items w l).
Proof.
  induction l as [|[k e] r IH]; cbn [maplit_items]; [phi_leaf|].
  phi_bind; [apply phi_eval|]. phi_bind; [exact IH|]. phi_leaf.
Qed.

Lemma phi_loop_func name args : Phi (loop_func name args).
Proof.
  unfold loop_func. destruct args as [|a r]; [phi_leaf|].
  destruct a; try phi_leaf.
  phi_bind; [phi_leaf|].
  destruct (fn_is name n_index); [phi_leaf|].
  destruct x; try phi_leaf.
  destruct (fn_is name n_isFirst); [phi_leaf|].
  phi_bind; [phi_leaf|]. destruct x; phi_leaf.
Qed.

Lemma phi_call_func name args : Phi (call_func w name args).
Proof.
  unfold call_func. destruct (func_arities name) as [ar|] eqn:Har; [|phi_leaf].
  destruct (negb _); [phi_leaf|].
  phi_bind; [apply phi_eval_list|].
  phi_bind; [apply (wl_lift L); eapply (ps_func PS); exact Har|].
  destruct x0; phi_leaf.
Qed.

Lemma phi_dataref_access acc : forall ref, Phi (dataref_access w acc ref).
Proof.
  induction acc as [|a rest IH]; intros ref; cbn [dataref_access]; [phi_leaf|].
  phi_bind.
  - destruct a; try phi_leaf.
    phi_bind; [apply phi_eval|].
    destruct x; try phi_leaf;
      (phi_bind; [apply (wl_lift L); apply (ps_string PS) | phi_leaf]).
  - destruct x as [oi k].
    destruct ref; try phi_leaf.
    + destruct (is_nullsafe a); phi_leaf.
    + destruct (is_nullsafe a); phi_leaf.
    + destruct oi as [i|]; [apply IH | phi_leaf].
    + destruct oi as [i|]; [phi_leaf | apply IH].
Qed.

Lemma phi_print_dirs l : forall v, Phi (print_dirs cf w l v).
Proof.
  induction l as [|d r IH]; intros v; cbn [print_dirs]; [phi_leaf|].
  destruct d; try phi_leaf.
  destruct (lookup_directive name) as [[arglens ?]|]; [|phi_leaf].
  destruct (negb _); [phi_leaf|].
  phi_bind; [apply phi_eval_list|].
  phi_bind; [apply (wl_lift L); apply (ps_string PS)|].
  phi_bind; [apply (wl_lift L); apply (ps_print PS)|].
  phi_bind; [apply IH|]. phi_leaf.
Qed.

Lemma phi_if_conds cs : Phi (if_conds w cs).
Proof.
  induction cs as [|c0 r IH]; cbn [if_conds]; [phi_leaf|].
  destruct c0; try phi_leaf.
  destruct cond as [c|].
  - phi_bind; [apply phi_eval|].
    destruct (truthy x); [|exact IH]. phi_bind; [apply Hw | phi_leaf].
  - phi_bind; [apply Hw | phi_leaf].
Qed.

Lemma phi_for_items var body items : forall i, Phi (for_items w var body i items).
Proof.
  induction items as [|x r IH]; intros i; cbn [for_items]; [phi_leaf|].
  phi_bind; [phi_leaf|]. phi_bind; [phi_leaf|]. phi_bind; [apply Hw|]. apply IH.
Qed.

Lemma phi_case_hit sv vs : Phi (case_hit w sv vs).
Proof.
  induction vs as [|x r IH]; cbn [case_hit]; [phi_leaf|].
  phi_bind; [apply phi_eval|]. destruct (equals sv x0); [phi_leaf | exact IH].
Qed.

Lemma phi_switch_cases sv cs : Phi (switch_cases w sv cs).
Proof.
  induction cs as [|c r IH]; cbn [switch_cases]; [phi_leaf|].
  destruct c; try phi_leaf.
  phi_bind; [apply phi_case_hit|].
  destruct (x || _); [|exact IH]. phi_bind; [apply Hw | phi_leaf].
Qed.

Lemma phi_call_params ps : forall cd, Phi (call_params w ps cd).
Proof.
  induction ps as [|p r IH]; intros cd; cbn [call_params]; [phi_leaf|].
  destruct p; try phi_leaf.
  - phi_bind; [apply phi_eval | apply IH].
  - phi_bind; [apply phi_render_block | apply IH].
Qed.

Lemma phi_call_data alldata dat : Phi (call_data w alldata dat).
Proof.
  unfold call_data.
  apply (wl_read_ctx L _ (fun c =>
    if alldata then match sc_alldata c with Some s => ret (sc_push s) | None => fail e_impossible end
    else match dat with
         | Some e => dv <-- eval w e ;;; match dv with VMap id m => ret (sc_push (new_scope id m)) | _ => fail e_notmap end
         | None => ret [fresh_frame]
         end)).
  intros c. destruct alldata.
  - destruct (sc_alldata c); phi_leaf.
  - destruct dat as [e|]; [|phi_leaf].
    phi_bind; [apply phi_eval|]. destruct x; phi_leaf.
Qed.

Lemma phi_call_enter callee cd : Phi (call_enter w callee cd).
Proof. apply (wl_enter L). apply Hw. Qed.

Lemma phi_plural_pick mp i dflt cs : Phi (plural_pick w mp i dflt cs).
Proof.
  induction cs as [|c r IH]; cbn [plural_pick].
  - phi_bind; [apply Hw | phi_leaf].
  - destruct c; try phi_leaf.
    destruct (i =? v)%Z; [|exact IH]. phi_bind; [apply Hw | phi_leaf].
Qed.

Lemma phi_msg_body mp ns : Phi (msg_body w mp ns).
Proof.
  induction ns as [|x r IH]; cbn [msg_body]; [phi_leaf|].
  destruct x; try exact IH.
  - phi_bind; [apply Hw | exact IH].
  - phi_bind; [apply Hw | exact IH].
  - phi_bind; [apply phi_eval|]. destruct x0; try phi_leaf.
    phi_bind; [apply phi_plural_pick | exact IH].
Qed.

Lemma phi_walk_node n : Phi (walk_node cf w n).
Proof.
  destruct n; cbn [walk_node]; try phi_leaf.
  - (* NFunc *) destruct (_ || _); [apply phi_loop_func | apply phi_call_func].
  - (* NListLit *) phi_bind; [apply phi_eval_list | phi_leaf].
  - (* NMapLit *) phi_bind; [apply phi_maplit_items | phi_leaf].
  - (* NDataRef *)
    phi_bind; [|apply phi_dataref_access].
    destruct (bstr_eqb key s_ij); [|phi_leaf]. destruct (c_ij cf); phi_leaf.
  - (* NNot *) phi_bind; [apply phi_eval | phi_leaf].
  - (* NNeg *) phi_bind; [apply phi_evaldef|]. destruct x; phi_leaf.
  - (* NBin *)
    destruct op.
    1-5: (phi_bind; [apply phi_evaldef|]; phi_bind; [apply phi_evaldef|]; apply (wl_lift L); apply (ps_arith PS)).
    1-2: (phi_bind; [apply phi_eval|]; phi_bind; [apply phi_eval|]; phi_leaf).
    1-4: (phi_bind; [apply phi_evaldef|]; phi_bind; [apply phi_evaldef|]; apply (wl_lift L); apply (ps_compare PS)).
    + phi_bind; [apply phi_eval|]. destruct (truthy x); [phi_leaf|].
      phi_bind; [apply phi_eval | phi_leaf].
    + phi_bind; [apply phi_eval|]. destruct (truthy x); [|phi_leaf].
      phi_bind; [apply phi_eval | phi_leaf].
    + phi_bind; [apply phi_eval|]. destruct (is_nullish x); [apply phi_eval | phi_leaf].
  - (* NTern *) phi_bind; [apply phi_eval|]. destruct (truthy x); apply phi_eval.
  - (* NList *) apply (wl_scoped L). apply phi_walk_list.
  - (* NRawText *) phi_bind; phi_leaf.
  - (* NPrint *)
    phi_bind; [apply Hw|].
    assert (Hrest : Phi (ds <-- print_dirs cf w dirs x ;;;
                         s <-- lift (value_string x) ;;;
                         st <-- get ;;;
                         ws <-- lift (print_writes (mode st) ds s) ;;;
                         _ <-- write_all ws ;;; ret VUndef)).
    { phi_bind; [apply phi_print_dirs|].
      phi_bind; [apply (wl_lift L); apply (ps_string PS)|].
      apply (wl_read_mode L _ (fun md => ws <-- lift (print_writes md x0 x1) ;;; _ <-- write_all ws ;;; ret VUndef)).
      intros md. phi_bind; [apply (wl_lift L); apply (ps_print PS)|].
      phi_bind; [apply phi_write_all | phi_leaf]. }
    destruct x; try exact Hrest. phi_leaf.
  - (* NCss *)
    phi_bind; [|phi_bind; phi_leaf].
    destruct expr as [e|]; [|phi_leaf].
    phi_bind; [apply phi_eval|]. phi_bind; [apply (wl_lift L); apply (ps_string PS) | phi_leaf].
  - (* NLog *) phi_bind; [apply phi_render_block | phi_leaf].
  - (* NIf *) apply phi_if_conds.
  - (* NFor *)
    phi_bind; [apply phi_eval|].
    destruct x; try phi_leaf.
    destruct l as [|y l'].
    + destruct ifempty as [ie|]; [|phi_leaf]. phi_bind; [apply Hw | phi_leaf].
    + set (l := y :: l').
      apply (wl_ext L _ (_ <-- m_push ;;;
                         _ <-- (_ <-- m_set (var ++ s_lastindex) (VInt (Z.of_nat (length l) - 1)) ;;;
                                for_items w var n2 0%Z l) ;;;
                         _ <-- m_pop ;;; ret VUndef)).
      * intros st. apply mbind_ext. intros [] s. apply mbind_assoc.
      * apply (wl_scoped L). phi_bind; [phi_leaf | apply phi_for_items].
  - (* NSwitch *) phi_bind; [apply phi_eval | apply phi_switch_cases].
  - (* NCall *)
    destruct (find_template _ name) as [callee|]; [|phi_leaf].
    phi_bind; [apply phi_call_data|]. phi_bind; [apply phi_call_params |]. phi_bind; [phi_leaf | apply phi_call_enter].
  - (* NLetValue *) phi_bind; [apply phi_eval|]. phi_bind; phi_leaf.
  - (* NLetContent *) phi_bind; [apply phi_render_block|]. phi_bind; phi_leaf.
  - (* NMsg *) phi_bind; [apply phi_msg_body | phi_leaf].
  - (* NMsgHtmlTag *) phi_bind; phi_leaf.
  - (* NTemplate *) phi_bind; [phi_leaf|]. phi_bind; [apply Hw | phi_leaf].
Qed.

Lemma phi_walk_body n : Phi (walk_body cf w n).
Proof. unfold walk_body. phi_bind; [phi_leaf | apply phi_walk_node]. Qed.
End Body.

Theorem walk_logic : forall fuel n, Phi (walk cf fuel n).
Proof.
  induction fuel as [|f IH]; intros n.
  - rewrite walk_O. apply (wl_lift L). apply (ps_fuel PS).
  - rewrite walk_S. apply phi_walk_body. exact IH.
Qed.
End Generic.

(* PART C.  The unary instance: invariants *)

Definition pushed (st : mstate) : mstate := set_ctx st (sc_push (ctx st)).
Definition popped (st : mstate) : mstate := set_ctx st (sc_pop (ctx st)).

Lemma scoped_eq (m : M unit) st :
  (_ <-- m_push ;;; _ <-- m ;;; _ <-- m_pop ;;; ret VUndef) st =
  match classify (fst (m (pushed st))) with
  | inl _ => (Ok VUndef, popped (snd (m (pushed st))))
  | inr e => (of_fault e, snd (m (pushed st)))
  end.
Proof.
  unfold mbind at 1. cbn [m_push modify]. fold (pushed st).
  rewrite mbind_eq. destruct (classify (fst (m (pushed st)))); reflexivity.
Qed.

Section Inv.
Variable I : mstate -> Prop.
Variables R E : mstate -> mstate -> Prop.
Variable allowed : fault -> Prop.

(* started in an [I]-state, [m] returns normally in an [I]-state [R]-related to the start,
   or ends in an allowed fault in an [E]-related state *)
Definition inv_spec {A} (m : M A) : Prop :=
  forall st r st', I st -> m st = (r, st') ->
    match classify r with
    | inl _ => I st' /\ R st st'
    | inr e => E st st' /\ allowed e
    end.

Definition inv_pure_ok {A} (o : outcome A) : Prop :=
  match classify o with inl _ => True | inr e => allowed e end.

Record inv_conditions : Prop := {
  ic_refl : forall st, I st -> R st st;
  ic_trans : forall a b c, R a b -> R b c -> R a c;
  ic_fault_here : forall st, I st -> E st st;
  ic_fault_later : forall a b c, R a b -> E b c -> E a c;
  ic_err : forall e, allowed (FErr e);
  (* primitives *)
  ic_set_cur : forall st p, I st -> I (set_cur st p) /\ R st (set_cur st p);
  ic_template_mode : forall st ae, I st ->
      I (set_mode st (template_mode (mode st) ae)) /\ R st (set_mode st (template_mode (mode st) ae));
  ic_write_ok : forall w st st', I st -> write w st = (Ok tt, st') -> I st' /\ R st st';
  ic_write_err : forall w st st', I st -> write w st = (Err e_write, st') -> E st st';
  ic_set : forall k v st st', I st -> m_set k v st = (Ok tt, st') -> I st' /\ R st st';
  ic_unbound : forall st, I st -> I (bump_unbound st) /\ R st (bump_unbound st);
  ic_bump_id : forall st, I st -> I (bump_id st) /\ R st (bump_id st);
  (* scope push .. pop *)
  ic_push : forall st, I st -> I (pushed st);
  ic_pop : forall st st2, I st -> I st2 -> R (pushed st) st2 -> I (popped st2) /\ R st (popped st2);
  ic_push_fault : forall st st2, I st -> E (pushed st) st2 -> E st st2;
  (* renderBlock's buffer *)
  ic_buf_push : forall st, I st -> I (buf_pushed st);
  ic_buf_pop : forall st st2 buf rest, I st -> I st2 -> R (buf_pushed st) st2 -> bufs st2 = buf :: rest ->
      I (set_bufs st2 rest) /\ R st (set_bufs st2 rest);
  ic_buf_lost : forall st st2, I st -> I st2 -> R (buf_pushed st) st2 -> bufs st2 = [] -> E st st2;
  ic_buf_fault : forall st st2, I st -> E (buf_pushed st) st2 -> E st st2;
  (* calls *)
  ic_enter : forall st callee cd, I st -> I (entered st callee cd);
  ic_leave : forall st callee cd st2, I st -> I st2 -> R (entered st callee cd) st2 ->
      I (left st st2) /\ R st (left st st2);
  ic_leave_fault : forall st callee cd st2, I st -> E (entered st callee cd) st2 -> E st (left st st2);
}.

Hypothesis C : inv_conditions.

Lemma inv_ret {A} (x : A) : inv_spec (ret x).
Proof. intros st r st' Hi H. inversion H; subst. cbn. split; [exact Hi | apply (ic_refl C); exact Hi]. Qed.
Lemma inv_fail {A} e : inv_spec (@fail A e).
Proof. intros st r st' Hi H. inversion H; subst. cbn. split; [apply (ic_fault_here C); exact Hi | apply (ic_err C)]. Qed.
Lemma inv_lift {A} (o : outcome A) : inv_pure_ok o -> inv_spec (lift o).
Proof.
  intros Ho st r st' Hi H. inversion H; subst. unfold inv_pure_ok in Ho.
  destruct (classify r); [split; [exact Hi | apply (ic_refl C); exact Hi] | split; [apply (ic_fault_here C); exact Hi | exact Ho]].
Qed.
Lemma inv_bind {A B} (m : M A) (f : A -> M B) : inv_spec m -> (forall x, inv_spec (f x)) -> inv_spec (mbind m f).
Proof.
  intros Hm Hf st r st2 Hi Hb.
  destruct (mbind_inv _ _ _ _ _ Hb) as [(x & st1 & H1 & H2) | (e & H1 & ->)].
  - pose proof (Hm _ _ _ Hi H1) as [Hi1 HR1]. cbn in Hi1, HR1.
    pose proof (Hf x _ _ _ Hi1 H2) as H3.
    destruct (classify r).
    + destruct H3 as [Hi2 HR2]. split; [exact Hi2 | eapply (ic_trans C); eauto].
    + destruct H3 as [HE Ha]. split; [eapply (ic_fault_later C); eauto | exact Ha].
  - pose proof (Hm _ _ _ Hi H1) as H3. rewrite classify_of_fault. rewrite classify_of_fault in H3. exact H3.
Qed.
Lemma inv_modify f : (forall st, I st -> I (f st) /\ R st (f st)) -> inv_spec (modify f).
Proof. intros Hf st r st' Hi H. inversion H; subst. cbn. apply Hf. exact Hi. Qed.

Lemma inv_write w : inv_spec (write w).
Proof.
  intros st r st' Hi H. pose proof (write_outcome w st) as Ho. rewrite H in Ho. cbn in Ho.
  destruct Ho as [-> | ->]; cbn.
  - eapply (ic_write_ok C); eauto.
  - split; [eapply (ic_write_err C); eauto | apply (ic_err C)].
Qed.
Lemma inv_set k v : inv_spec (m_set k v).
Proof.
  intros st r st' Hi H. pose proof H as H0. rewrite m_set_eq in H0.
  destruct (ctx st) as [|f rest].
  - inversion H0; subst. cbn. split; [apply (ic_fault_here C); exact Hi | apply (ic_err C)].
  - inversion H0; subst r. cbn. eapply (ic_set C); [exact Hi|]. rewrite H. f_equal. inversion H0. reflexivity.
Qed.
Lemma inv_lookup k : inv_spec (m_lookup k).
Proof.
  intros st r st' Hi H. rewrite m_lookup_eq in H. destruct (sc_lookup (ctx st) k); inversion H; subst; cbn.
  - split; [exact Hi | apply (ic_refl C); exact Hi].
  - apply (ic_unbound C). exact Hi.
Qed.
Lemma inv_fresh_list l : inv_spec (fresh_list l).
Proof.
  intros st r st' Hi H. rewrite fresh_list_eq in H. destruct l; inversion H; subst; cbn.
  - split; [exact Hi | apply (ic_refl C); exact Hi].
  - apply (ic_bump_id C). exact Hi.
Qed.
Lemma inv_fresh_list_or_nil l : inv_spec (fresh_list_or_nil l).
Proof.
  intros st r st' Hi H. rewrite fresh_list_or_nil_eq in H. destruct l; inversion H; subst; cbn.
  - split; [exact Hi | apply (ic_refl C); exact Hi].
  - apply (ic_bump_id C). exact Hi.
Qed.
Lemma inv_fresh_map m : inv_spec (fresh_map m).
Proof. intros st r st' Hi H. inversion H; subst; cbn. apply (ic_bump_id C). exact Hi. Qed.

Lemma inv_scoped (m : M unit) : inv_spec m -> inv_spec (_ <-- m_push ;;; _ <-- m ;;; _ <-- m_pop ;;; ret VUndef).
Proof.
  intros Hm st r st' Hi H. rewrite scoped_eq in H.
  destruct (m (pushed st)) as [r1 st2] eqn:Hrun. cbn [fst snd] in H.
  pose proof (Hm _ _ _ (ic_push C _ Hi) Hrun) as H1.
  destruct (classify r1) as [x|e]; inversion H; subst.
  - cbn. destruct H1 as [Hi2 HR]. eapply (ic_pop C); eauto.
  - rewrite classify_of_fault. destruct H1 as [HE Ha]. split; [eapply (ic_push_fault C); eauto | exact Ha].
Qed.

Lemma inv_eval (w : node -> M value) e : inv_spec (w e) -> inv_spec (eval w e).
Proof.
  intros Hw st r st' Hi H. rewrite eval_eq in H.
  destruct (w e st) as [r1 st2] eqn:Hrun. cbn [fst snd] in H.
  pose proof (Hw _ _ _ Hi Hrun) as H1.
  destruct (classify r1) as [x|f]; inversion H; subst.
  - cbn. destruct H1 as [Hi2 HR]. destruct (ic_set_cur C st2 (cur st) Hi2) as [Hi3 HR3].
    split; [exact Hi3 | eapply (ic_trans C); eauto].
  - rewrite classify_of_fault. exact H1.
Qed.

Lemma inv_block (w : node -> M value) body : inv_spec (w body) -> inv_spec (render_block w body).
Proof.
  intros Hw st r st' Hi H. rewrite render_block_eq in H.
  destruct (w body (buf_pushed st)) as [r1 st2] eqn:Hrun. cbn [fst snd] in H.
  pose proof (Hw _ _ _ (ic_buf_push C _ Hi) Hrun) as H1.
  destruct (classify r1) as [x|f].
  - destruct H1 as [Hi2 HR]. cbn zeta in H. destruct (bufs st2) as [|buf rest] eqn:Hb; inversion H; subst; cbn.
    + split; [eapply (ic_buf_lost C); eauto | apply (ic_err C)].
    + eapply (ic_buf_pop C); eauto.
  - inversion H; subst. rewrite classify_of_fault. destruct H1 as [HE Ha].
    split; [eapply (ic_buf_fault C); eauto | exact Ha].
Qed.

Lemma inv_enter (w : node -> M value) callee cd : inv_spec (w (t_node callee)) -> inv_spec (call_enter w callee cd).
Proof.
  intros Hw st r st' Hi H. rewrite call_enter_eq in H. cbn zeta in H.
  destruct (w (t_node callee) (entered st callee cd)) as [r1 st2] eqn:Hrun. cbn [fst snd] in H.
  pose proof (Hw _ _ _ (ic_enter C _ callee cd Hi) Hrun) as H1.
  destruct (classify r1) as [x|f]; inversion H; subst.
  - cbn. destruct H1 as [Hi2 HR]. eapply (ic_leave C); eauto.
  - rewrite classify_of_fault. destruct H1 as [HE Ha]. split; [eapply (ic_leave_fault C); eauto | exact Ha].
Qed.

Theorem inv_logic : walker_logic (@inv_spec) (@inv_pure_ok).
Proof.
  constructor.
  - intros A m m' Heq Hm st r st' Hi H. rewrite <- Heq in H. eapply Hm; eauto.
  - intros; apply inv_ret.
  - intros; apply inv_fail.
  - intros; apply inv_lift; assumption.
  - intros; apply inv_bind; assumption.
  - intros p. apply inv_modify. intros st Hi. apply (ic_set_cur C). exact Hi.
  - intros ae. apply inv_modify. intros st Hi. apply (ic_template_mode C). exact Hi.
  - apply inv_write.
  - apply inv_set.
  - apply inv_lookup.
  - apply inv_fresh_list.
  - apply inv_fresh_list_or_nil.
  - apply inv_fresh_map.
  - intros B f Hf st r st' Hi H. change ((st <-- get ;;; f (mode st)) st) with (f (mode st) st) in H. eapply Hf; eauto.
  - intros B f Hf st r st' Hi H. change ((st <-- get ;;; f (ctx st)) st) with (f (ctx st) st) in H. eapply Hf; eauto.
  - apply inv_scoped.
  - apply inv_eval.
  - apply inv_block.
  - apply inv_enter.
Qed.

Theorem inv_walk cf : pure_sites (@inv_pure_ok) -> forall fuel n, inv_spec (walk cf fuel n).
Proof. intros PS. apply (walk_logic cf _ _ inv_logic PS). Qed.

Theorem inv_walk_body cf (w : node -> M value) :
  pure_sites (@inv_pure_ok) -> (forall n, inv_spec (w n)) -> forall n, inv_spec (walk_body cf w n).
Proof. intros PS Hw. apply (phi_walk_body cf _ _ inv_logic PS w Hw). Qed.
End Inv.

(* when every fault is allowed the pure sites need no argument *)
Lemma pure_sites_any : pure_sites (@inv_pure_ok (fun _ => True)).
Proof.
  constructor; intros; unfold inv_pure_ok;
    match goal with |- match classify ?o with _ => _ end => destruct (classify o); exact Logic.I end.
Qed.

(* (1) the Write calls accepted by the top-level writer only ever grow, on every outcome *)
Definition out_ext (a b : mstate) : Prop := exists new, out b = new ++ out a.

Lemma out_ext_refl a : out_ext a a.
Proof. exists []. reflexivity. Qed.
Lemma out_ext_trans a b c : out_ext a b -> out_ext b c -> out_ext a c.
Proof. intros [n1 H1] [n2 H2]. exists (n2 ++ n1). rewrite H2, H1, app_assoc. reflexivity. Qed.
Lemma out_ext_same a b : out b = out a -> out_ext a b.
Proof. intros H. exists []. exact H. Qed.

Lemma out_grows_conditions : inv_conditions (fun _ => True) out_ext out_ext (fun _ => True).
Proof.
  constructor; intros; try exact Logic.I; try (split; [exact Logic.I|]); try assumption;
    try (apply out_ext_refl); try (apply out_ext_same; reflexivity).
  - eapply out_ext_trans; eauto.
  - eapply out_ext_trans; eauto.
  - (* write, accepted *)
    match goal with H : write _ _ = _ |- _ => apply write_inv in H; inversion H; subst end.
    + apply out_ext_same. reflexivity.
    + exists [w]. reflexivity.
  - (* write, refused or short *)
    match goal with H : write _ _ = _ |- _ => apply write_inv in H; inversion H; subst end.
    + apply out_ext_refl.
    + eexists [_]. reflexivity.
  - (* m_set *)
    match goal with H : m_set _ _ _ = _ |- _ => rewrite m_set_eq in H end.
    destruct (ctx st) as [|f r]; [discriminate|]. inversion H0; subst.
    apply out_ext_same. destruct (f_origin f); reflexivity.
Qed.

Theorem out_grows cf fuel n st r st' : walk cf fuel n st = (r, st') -> out_ext st st'.
Proof.
  intros H.
  pose proof (inv_walk _ _ _ _ out_grows_conditions cf pure_sites_any fuel n st r st' Logic.I H) as H1.
  destruct (classify r); destruct H1; assumption.
Qed.
Print Assumptions out_grows.

(* Everything proved through this layer is a statement about [walk_body].  The structural tie of [walk_body] to
   soyhtml/exec.go -- Proofs/WalkTie.v: the tree of events of every clause of state.walk, extracted from the Go
   source on every run, has the same set of paths as the hand-written event tree of the model's case; Proofs/WalkTieProbes.v: those event
   lists are what [walk_body] does on probe nodes -- is therefore an obligation of every property that imports this
   file (required last, so that none of its names is visible above). *)
From Soy Require Import Proofs.WalkTie Proofs.WalkTieProbes.
