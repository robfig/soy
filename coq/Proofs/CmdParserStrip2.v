(* Position independence of the successful runs of the command-level parser model: the second half of
   Section Level of Model/Parser.v (case_loop ... item_list_loop), under the three facts about
   placeholderization that CmdParserStripPlz.v proves (section hypotheses here). *)
From Soy Require Import Model.Bytes Model.Num Model.Values Model.Outcome Model.Ast Model.Token Model.RawText Model.ExprParser Model.Parser
  Generated.Tables Spec.ExprSyntax Proofs.ExprParserStrip.
From Soy Require Import Proofs.CmdParserStripDefs Proofs.CmdParserStrip.
Require Import Lia List.
Import ListNotations.
Open Scope N_scope.

Definition cps_oneq (o o' : option node) : Prop := option_map cps_strip o = option_map cps_strip o'.
Definition cps_oxeq (o o' : option node) : Prop := option_map strip_pos o = option_map strip_pos o'.
Definition cps_oleq (o o' : option (list node)) : Prop := option_map (map cps_strip) o = option_map (map cps_strip) o'.
Definition cps_pceq (x x' : list node * option (list node)) : Prop := cps_leq (fst x) (fst x') /\ cps_oleq (snd x) (snd x').
Definition cps_obeq (x x' : option node * bool) : Prop := cps_oneq (fst x) (fst x') /\ snd x = snd x'.

(* cps_node of Proofs/CmdParserStrip.v with the relations on optional parts unfolded as well *)
Ltac cps_node2 :=
  unfold cps_neq, cps_xeq, cps_leq, cps_xleq, cps_oneq, cps_oxeq, cps_oleq in *; cbn [cps_strip strip_pos option_map]; congruence.

Lemma cps_last_is_default_strip l : last_is_default (map cps_strip l) = last_is_default l.
Proof.
  unfold last_is_default. rewrite <- map_rev. destruct (rev l) as [|x r]; [reflexivity|]. cbn [map].
  destruct x; try reflexivity. cbn [cps_strip]. destruct values; reflexivity.
Qed.
Lemma cps_last_is_default l l' : cps_leq l l' -> last_is_default l = last_is_default l'.
Proof. intros H. rewrite <- (cps_last_is_default_strip l), <- (cps_last_is_default_strip l'). unfold cps_leq in H. rewrite H. reflexivity. Qed.

Definition cps_is_case (n : node) : bool := match n with NSwitchCase _ _ _ => true | _ => false end.
Lemma cps_is_case_strip n : cps_is_case (cps_strip n) = cps_is_case n.
Proof. destruct n; reflexivity. Qed.

Lemma cps_some r r' : cps_ok cps_neq r r' ->
  cps_ok cps_oneq (cbind r (fun n s' => COk (Some n) s')) (cbind r' (fun n s' => COk (Some n) s')).
Proof.
  intros H. cps H as n n' Hn Hs. apply cps_ok_ret; [cps_node2|exact Hs].
Qed.

Section Level2.
Variables (inlen inlen' : N) (lexq : bstr -> list tok) (unq : bstr -> option bstr) (efuel : list tok -> nat).
Hypothesis Hefuel : forall ts ts', map strip_tok ts = map strip_tok ts' -> efuel ts = efuel ts'.
Hypothesis Hplz : forall l l', cps_leq l l' -> cps_leq (plz_children l) (plz_children l').
Hypothesis Hexp : forall l l', cps_leq l l' -> existsb is_plural l = existsb is_plural l'.
Hypothesis Hch : forall n n', cps_neq n n' -> cps_leq (children_of n) (children_of n').
Variables (pe pe' : N -> cst -> cres node) (w w' : list N -> cst -> cres node) (lf : nat).
Hypothesis Hpe : forall prec s s', cps_R s s' -> cps_ok cps_xeq (pe prec s) (pe' prec s').
Hypothesis Hw : forall until s s', cps_R s s' -> cps_ok cps_neq (w until s) (w' until s').

Lemma cps_case_loop f : forall token token' values values' s s', cps_teq token token' -> cps_xleq values values' -> cps_R s s' ->
  cps_ok cps_neq (case_loop inlen pe w f token values s) (case_loop inlen' pe' w' f token' values' s').
Proof.
  induction f as [|f IH]; intros token token' values values' s s' Ht Hl H; cbn [case_loop]; [cps_triv|].
  cps_tok Ht. eapply cps_ok_bind with (eqa := cps_xleq).
  { destruct (tis token pit_Default); [apply cps_ok_ret; assumption|].
    cps Hpe as v v' Hv Hs0.
    apply cps_ok_ret; [apply cps_xleq_app; assumption|exact Hs0]. }
  intros values1 values1' s1 s1' Hv1 Hs1.
  cps_nx tok tok' Htok Hs2.
  destruct (tis tok pit_Comma); [apply IH; assumption|].
  destruct (tis tok pit_RightDelim); [|cps_triv].
  cps Hw as body body' Hb Hs3.
  apply cps_ok_ret; [cps_node2|apply cps_R_backup; exact Hs3].
Qed.

Lemma cps_switch_loop f : forall pos pos' endt value value' cases cases' s s',
  cps_xeq value value' -> cps_leq cases cases' -> cps_R s s' ->
  cps_ok cps_neq (switch_loop inlen pe w lf f pos endt value cases s) (switch_loop inlen' pe' w' lf f pos' endt value' cases' s').
Proof.
  induction f as [|f IH]; intros pos pos' endt value value' cases cases' s s' Hv Hl H; cbn [switch_loop]; [cps_triv|].
  cps_nx tok tok' Htok Hs1.
  destruct (tis tok pit_LeftDelim); [apply IH; assumption|].
  destruct (tis tok pit_Text). { destruct (all_space (t_val tok)); [apply IH; assumption|cps_triv]. }
  destruct (tis tok pit_Case || tis tok pit_Default).
  { rewrite <- (cps_last_is_default _ _ Hl). destruct (last_is_default cases); [cps_triv|].
    cps cps_case_loop as c c' Hc Hs2.
    apply IH; [exact Hv| |exact Hs2]. apply cps_leq_app; assumption. }
  destruct (tis tok endt).
  { cps_ex r r' Hr Hs2. apply cps_ok_ret; [cps_node2|exact Hs2]. }
  destruct (tis tok pit_Comment); [apply IH; assumption|cps_triv].
Qed.

Lemma cps_parse_switch token token' endt s s' : cps_R s s' ->
  cps_ok cps_neq (parse_switch inlen pe w lf token endt s) (parse_switch inlen' pe' w' lf token' endt s').
Proof.
  intros H. unfold parse_switch. cps Hpe as v v' Hv Hs1.
  cps_ex r r' Hr Hs2. apply cps_switch_loop; [exact Hv|apply cps_leq_nil|exact Hs2].
Qed.

Lemma cps_plural_skip il c r cases dflt s : cps_is_case c = false ->
  plural_cases il (c :: r) cases dflt s = plural_cases il r cases dflt s.
Proof. intros K. destruct c; try reflexivity. discriminate K. Qed.

Lemma cps_plural_cases : forall cs cs' cases cases' dflt dflt' s s',
  cps_leq cs cs' -> cps_leq cases cases' -> cps_oleq dflt dflt' -> cps_R s s' ->
  cps_ok cps_pceq (plural_cases inlen cs cases dflt s) (plural_cases inlen' cs' cases' dflt' s').
Proof.
  induction cs as [|c r IH]; intros cs' cases cases' dflt dflt' s s' Hcs Hl Hd H.
  { destruct cs' as [|c' r']; [|discriminate Hcs]. cbn [plural_cases]. apply cps_ok_ret; [split; assumption|exact H]. }
  destruct cs' as [|c' r']; [discriminate Hcs|]. unfold cps_leq in Hcs. cbn [map] in Hcs. injection Hcs as Hc Hr.
  pose proof (f_equal cps_is_case Hc) as K. rewrite !cps_is_case_strip in K.
  destruct (cps_is_case c) eqn:Kc.
  2:{ rewrite (cps_plural_skip inlen c), (cps_plural_skip inlen' c') by congruence. apply IH; assumption. }
  destruct c; try discriminate Kc. destruct c'; try discriminate K.
  apply (f_equal cps_parts) in Hc. cbn [cps_strip cps_parts] in Hc. injection Hc as Hvals Hbody. cbn [plural_cases].
  destruct values as [|v0 vr]; destruct values0 as [|v0' vr']; try discriminate Hvals.
  { apply IH; try assumption. unfold cps_oleq. cbn [option_map]. f_equal. apply Hch. exact Hbody. }
  cbn [map] in Hvals. injection Hvals as Hv0 Hvr.
  destruct v0; try cps_triv. destruct vr as [|v1 vr]; [|cps_triv].
  destruct vr' as [|v1' vr']; [|discriminate Hvr].
  destruct v0'; cbn [strip_pos] in Hv0; try discriminate Hv0. injection Hv0 as Hz. subst z0.
  apply IH; try assumption. apply cps_leq_app; [exact Hl|]. unfold cps_neq. cbn [cps_strip]. f_equal. apply Hch. exact Hbody.
Qed.

Lemma cps_parse_plural tok tok' s s' : cps_R s s' ->
  cps_ok cps_neq (parse_plural inlen pe w lf tok s) (parse_plural inlen' pe' w' lf tok' s').
Proof.
  intros H. unfold parse_plural. rewrite <- (cps_R_inmsg _ _ H). destruct (negb (c_inmsg s)); [cps_triv|].
  cps cps_parse_switch as sw sw' Hsw Hs1.
  unfold cps_neq in Hsw. destruct sw; try cps_triv.
  destruct sw'; cbn [cps_strip strip_pos] in Hsw; try discriminate Hsw.
  apply (f_equal cps_parts) in Hsw. cbn [cps_parts] in Hsw. injection Hsw as Hv Hcs.
  eapply cps_ok_bind; [apply cps_plural_cases; [exact Hcs|apply cps_leq_nil|reflexivity|exact Hs1]|].
  intros cd cd' s2 s2' [Hcd1 Hcd2] Hs2.
  destruct (snd cd) as [d|]; [|cps_triv]. destruct (snd cd') as [d'|]; [|discriminate Hcd2].
  apply cps_ok_ret; [|exact Hs2]. unfold cps_oleq in Hcd2. cbn [option_map] in Hcd2. injection Hcd2 as Hd. cps_node2.
Qed.

Lemma cps_parse_for token token' s s' : cps_R s s' ->
  cps_ok cps_neq (parse_for inlen pe w token s) (parse_for inlen' pe' w' token' s').
Proof.
  intros H. unfold parse_for.
  cps_ex vartoken vartoken' Hvt Hs1.
  cps_ex intoken intoken' Hit Hs2.
  destruct (negb (bstr_eqb (t_val intoken) k_in)); [cps_triv|].
  cps Hpe as coll coll' Hcoll Hs3.
  cps_ex r r' Hr Hs4.
  cps Hw as body body' Hb Hs5.
  pose proof (cps_R_backup _ _ Hs5) as Hs5b.
  cps_nx nx nx' Hnx Hs6.
  eapply cps_ok_bind with (eqa := cps_oneq).
  { destruct (tis nx pit_Ifempty); [|apply cps_ok_ret; [reflexivity|exact Hs6]].
    cps_ex r2 r2' Hr2 Hs8.
    cps Hw as b2 b2' Hb2 Hs9.
    apply cps_ok_ret; [cps_node2|exact Hs9]. }
  intros ie ie' s7 s7' Hie Hs7.
  cps_ex r3 r3' Hr3 Hs8.
  cps cps_tail1 as nm nm' <- Hs9.
  apply cps_ok_ret; [cps_node2|exact Hs9].
Qed.

Lemma cps_if_loop f : forall pos pos' conds conds' is_else s s', cps_leq conds conds' -> cps_R s s' ->
  cps_ok cps_neq (if_loop inlen pe w f pos conds is_else s) (if_loop inlen' pe' w' f pos' conds' is_else s').
Proof.
  induction f as [|f IH]; intros pos pos' conds conds' is_else s s' Hl H; cbn [if_loop]; [cps_triv|].
  eapply cps_ok_bind with (eqa := cps_oxeq).
  { destruct is_else; [apply cps_ok_ret; [reflexivity|exact H]|].
    cps Hpe as c c' Hc Hs0. apply cps_ok_ret; [cps_node2|exact Hs0]. }
  intros cond cond' s1 s1' Hcond Hs1.
  cps_ex r r' Hr Hs2.
  cps Hw as body body' Hb Hs3. cbv zeta.
  assert (Hl1 : cps_leq (conds ++ [NIfCond pos cond body]) (conds' ++ [NIfCond pos' cond' body'])).
  { apply cps_leq_app; [exact Hl|]. cps_node2. }
  pose proof (cps_R_backup _ _ Hs3) as Hs3b.
  cps_nx nx nx' Hnx Hs4.
  destruct (tis nx pit_Elseif); [apply IH; assumption|].
  destruct (tis nx pit_Else); [apply IH; assumption|].
  destruct (tis nx pit_IfEnd); [|apply IH; assumption].
  cps_ex r2 r2' Hr2 Hs5. apply cps_ok_ret; [cps_node2|exact Hs5].
Qed.

Lemma cps_parse_msg token token' s s' : cps_R s s' ->
  cps_ok cps_neq (parse_msg inlen unq w lf token s) (parse_msg inlen' unq w' lf token' s').
Proof.
  intros H. unfold parse_msg.
  cps cps_attrs_loop as attrs attrs' <- Hs1.
  destruct (attr k_desc attrs) as [desc|]; [|cps_triv].
  cps_ex r r' Hr Hs2.
  cps Hw as contents contents' Hc Hs3. cbv zeta.
  assert (Hb : cps_leq (plz_children (children_of contents)) (plz_children (children_of contents'))).
  { apply Hplz. apply Hch. exact Hc. }
  rewrite <- (Hexp _ _ Hb), <- (cps_leq_length _ _ Hb).
  destruct (existsb is_plural _ && negb (Nat.eqb _ 1)); [cps_triv|].
  pose proof (cps_R_set_inmsg _ _ false Hs3) as Hs4.
  cps_ex r2 r2' Hr2 Hs5. apply cps_ok_ret; [cps_node2|exact Hs5].
Qed.

Lemma cps_parse_template token token' s s' : cps_R s s' ->
  cps_ok cps_neq (parse_template inlen unq w lf token s) (parse_template inlen' unq w' lf token' s').
Proof.
  intros H. unfold parse_template.
  cps_ex id id' Hid Hs1.
  cps cps_attrs_loop as attrs attrs' <- Hs2.
  cps cps_parse_autoescape as ae ae' <- Hs3.
  cps cps_bool_attr as priv priv' <- Hs4.
  cps_ex r r' Hr Hs5.
  cps Hw as body body' Hb Hs6. cbv zeta.
  rewrite <- (cps_R_ns _ _ Hs6).
  cps_ex r2 r2' Hr2 Hs7. apply cps_ok_ret; [cps_node2|exact Hs7].
Qed.

Lemma cps_parse_header_param token token' s s' : cps_teq token token' -> cps_R s s' ->
  cps_ok cps_neq (parse_header_param inlen pe token s) (parse_header_param inlen' pe' token' s').
Proof.
  intros Ht H. unfold parse_header_param.
  cps_ex name name' Hname Hs1.
  cps_ex c c' Hc Hs2.
  cps_ex typ typ' Htyp Hs3.
  cps_nx tok tok' Htok Hs4.
  eapply cps_ok_bind with (eqa := cps_oxeq).
  { destruct (tis tok pit_Equals); [|apply cps_ok_ret; [reflexivity|apply cps_R_backup; exact Hs4]].
    cps Hpe as e e' He Hs0. apply cps_ok_ret; [cps_node2|exact Hs0]. }
  intros dv dv' s5 s5' Hdv Hs5.
  cps_ex r r' Hr Hs6. cps_tok Ht. apply cps_ok_ret; [cps_node2|exact Hs6].
Qed.

Lemma cps_begin_tag s s' : cps_R s s' ->
  cps_ok cps_oneq (begin_tag inlen lexq unq parse_expr efuel pe w lf s) (begin_tag inlen' lexq unq parse_expr efuel pe' w' lf s').
Proof.
  intros H. unfold begin_tag, notmsg.
  cps_nx token token' Ht Hs1. cbv beta zeta. rewrite <- (cps_R_inmsg _ _ Hs1).
  destruct (tis token pit_Namespace); [apply cps_some; apply cps_parse_namespace; exact Hs1|].
  destruct (tis token pit_Template); [apply cps_some; apply cps_parse_template; exact Hs1|].
  destruct (tis token pit_HeaderParam || tis token pit_HeaderOptionalParam);
    [apply cps_some; apply cps_parse_header_param; assumption|].
  destruct (tis token pit_If).
  { destruct (c_inmsg _); [cps_triv|]. apply cps_some. apply cps_if_loop; [apply cps_leq_nil|exact Hs1]. }
  destruct (tis token pit_Msg).
  { destruct (c_inmsg _); [cps_triv|]. apply cps_some. apply cps_parse_msg; exact Hs1. }
  destruct (tis token pit_Plural); [apply cps_some; apply cps_parse_plural; exact Hs1|].
  destruct (tis token pit_Foreach || tis token pit_For).
  { destruct (c_inmsg _); [cps_triv|]. apply cps_some. apply cps_parse_for; exact Hs1. }
  destruct (tis token pit_Switch).
  { destruct (c_inmsg _); [cps_triv|]. apply cps_some. apply cps_parse_switch; exact Hs1. }
  destruct (tis token pit_Call); [apply cps_some; apply cps_parse_call; assumption|].
  destruct (tis token pit_Literal).
  { cps_ex r1 r1' Hr1 Hs2. cps_ex lit lit' Hlit Hs3.
    cps_ex r3 r3' Hr3 Hs4. cps_ex r4 r4' Hr4 Hs5. cps_ex r5 r5' Hr5 Hs6.
    apply cps_ok_ret; [cps_node2|exact Hs6]. }
  destruct (tis token pit_Css); [apply cps_some; apply cps_parse_css; assumption|].
  destruct (tis token pit_Log).
  { cps_ex r1 r1' Hr1 Hs2.
    cps Hw as body body' Hb Hs3.
    cps_ex r3 r3' Hr3 Hs4. apply cps_ok_ret; [cps_node2|exact Hs4]. }
  destruct (tis token pit_Debugger).
  { cps_ex r1 r1' Hr1 Hs2. apply cps_ok_ret; [cps_node2|exact Hs2]. }
  destruct (tis token pit_Let); [apply cps_some; apply cps_parse_let; assumption|].
  destruct (tis token pit_Alias).
  { cps cps_parse_alias as u u' _ Hs2. apply cps_ok_ret; [reflexivity|exact Hs2]. }
  destruct (assoc (t_typ token) parser_special_chars) as [txt|].
  { cps_ex r1 r1' Hr1 Hs2. apply cps_ok_ret; [cps_node2|exact Hs2]. }
  destruct (one_of (t_typ token) parser_implicit_print).
  { apply cps_some. apply cps_cmd_print; [exact Hpe|apply cps_R_backup; exact Hs1]. }
  destruct (tis token pit_Print); [|cps_triv]. apply cps_some. apply cps_cmd_print; assumption.
Qed.

Lemma cps_text_or_tag token0 token0' until s s' : cps_teq token0 token0' -> cps_R s s' ->
  cps_ok cps_obeq (text_or_tag inlen lexq unq parse_expr efuel pe w lf token0 until s)
                  (text_or_tag inlen' lexq unq parse_expr efuel pe' w' lf token0' until s').
Proof.
  intros Ht0 H. unfold text_or_tag. cbv zeta. cps_tok Ht0.
  cps cps_skip_comments as token token' Ht Hs1. cps_tok Ht.
  destruct (one_of (t_typ token) until); [apply cps_ok_ret; [split; reflexivity|exact Hs1]|].
  cps_nx token2 token2' Ht2 Hs2.
  destruct (tis token pit_LeftDelim && one_of (t_typ token2) until); [apply cps_ok_ret; [split; reflexivity|exact Hs2]|].
  pose proof (cps_R_backup _ _ Hs2) as Hs3.
  destruct (tis token pit_Text).
  { cps cps_text_run as [tx nxt] [tx' nxt'] [Htx Hnxt] Hs4.
    cbn [fst snd] in *. subst tx'. cps_tok Hnxt.
    pose proof (cps_R_backup _ _ Hs4) as Hs5.
    destruct (rawtext_run tx (tis token0 pit_Comment) (tis nxt pit_Comment)) as [[|x l]| | | | |]; try cps_triv.
    - apply cps_ok_ret; [split; reflexivity|exact Hs5].
    - apply cps_ok_ret; [split; reflexivity|exact Hs5]. }
  destruct (tis token pit_LeftDelim).
  { cps cps_begin_tag as n n' Hn Hs4.
    apply cps_ok_ret; [split; [exact Hn|reflexivity]|exact Hs4]. }
  destruct (tis token pit_SoyDocStart); [|cps_triv].
  cps cps_soydoc_loop as n n' Hn Hs4.
  apply cps_ok_ret; [|exact Hs4]. split; [|reflexivity]. cbn [fst]. cps_node2.
Qed.

Lemma cps_item_list_loop f : forall until pos pos' acc acc' s s', cps_leq acc acc' -> cps_R s s' ->
  cps_ok cps_neq (item_list_loop inlen lexq unq parse_expr efuel pe w lf f until pos acc s)
                 (item_list_loop inlen' lexq unq parse_expr efuel pe' w' lf f until pos' acc' s').
Proof.
  induction f as [|f IH]; intros unt pos pos' acc acc' s s' Hl H; cbn [item_list_loop]; [cps_triv|].
  cps_nx token token' Ht Hs1. cbv zeta.
  cps cps_text_or_tag as [on hb] [on' hb'] [Hon Hhb] Hs2.
  cbn [fst snd] in *. subst hb'.
  destruct hb; [apply cps_ok_ret; [cps_node2|exact Hs2]|].
  apply IH; [|exact Hs2].
  destruct on as [n|], on' as [n'|]; try discriminate Hon; [|exact Hl].
  apply cps_leq_app; [exact Hl|]. unfold cps_oneq in Hon. cbn [option_map] in Hon. injection Hon as Hn. exact Hn.
Qed.

End Level2.
