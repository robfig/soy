(* C15, parser half: itemList(until) / textOrTag / beginTag (Model/Parser.v) on the items the scanner sends for a
   body of text, comments, special-character commands and literal blocks ([pshape], [tagitems], [mshapeT]:
   Proofs/LexBodyMixMain.v, LexTemplate.v), for an arbitrary until-set and whatever ends the body; and
   parseTemplate around such a body. *)
From Soy Require Import Model.Bytes Model.Outcome Model.Ast Model.Token Model.RawText Model.ExprParser Model.Parser Generated.Tables
  Spec.Text Proofs.RawTextProofs Proofs.ExprParserRules Proofs.BodyTextSpec Proofs.LexBodyText Proofs.LexTokens Proofs.LexBodyMixMain
  Proofs.LexTemplate Proofs.ParseBodyText Proofs.ParseBodyMix.
From Coq Require Import Lia.
Open Scope N_scope.

Lemma mx_expect inlen typ ctx s t l : stream (c_p s) = t :: l -> inv (c_p s) -> t_typ t = typ ->
  exists s1, c_expect inlen typ ctx s = COk t s1 /\ stream (c_p s1) = l /\ inv (c_p s1).
Proof.
  intros Hs Hi Ht. destruct (c_next_stream s t l Hs Hi) as (s1 & Hn & Hs1 & Hi1 & _). exists s1.
  unfold c_expect. rewrite Hn. cbn [cbind]. unfold tis. rewrite Ht, N.eqb_refl. auto.
Qed.

Lemma special_types t o : assoc t parser_special_chars = Some o -> In t [79; 80; 81; 82; 83; 84; 85].
Proof. intros H. exact (in_map fst _ _ (assoc_In _ _ _ H)). Qed.

Lemma pshape_nonempty pcs its : pshape pcs its -> pcs <> [].
Proof. intros H. destruct H; discriminate. Qed.

Lemma tagitems_head o tg : tagitems o tg -> exists ld tg', tg = ld :: tg' /\ t_typ ld = pit_LeftDelim.
Proof. intros H. destruct H; eexists; eexists; split; try reflexivity; assumption. Qed.

(* the node list a text item of normalised text [v] adds: none when nothing is left of it *)
Definition raw_nodes (p : N) (v : bstr) : list node := match v with [] => [] | _ => [NRawText p v] end.

Lemma raw_nodes_raw p v : Forall is_raw (raw_nodes p v) /\ concat (map raw_text_of (raw_nodes p v)) = v.
Proof. destruct v; cbn; [auto|]. rewrite app_nil_r. repeat constructor. Qed.

Lemma raw_nodes_acc (acc : list node) p v : match v with [] => acc | _ => acc ++ [NRawText p v] end = acc ++ raw_nodes p v.
Proof. destruct v; [symmetry; apply app_nil_r|reflexivity]. Qed.

Section U.
Variable inlen : N.
Variable lexq : bstr -> list tok.
Variable unq : bstr -> option bstr.
Variable pexpr : nat -> N -> pst -> presult node.
Variable efuel : list tok -> nat.
Variable pe : N -> cst -> cres node.
Variable w : list N -> cst -> cres node.
Variable lf : nat.
Notation loop := (item_list_loop inlen lexq unq pexpr efuel pe w lf).
Notation tot := (text_or_tag inlen lexq unq pexpr efuel pe w lf).
Notation btag := (begin_tag inlen lexq unq pexpr efuel pe w lf).

Lemma begin_tag_special c rd l o s : stream (c_p s) = c :: rd :: l -> inv (c_p s) ->
  assoc (t_typ c) parser_special_chars = Some o -> t_typ rd = pit_RightDelim ->
  exists s', btag s = COk (Some (NRawText (t_pos c) o)) s' /\ stream (c_p s') = l /\ inv (c_p s').
Proof.
  intros Hs Hi Ha Hrd.
  destruct (c_next_stream s c _ Hs Hi) as (s1 & Hn1 & Hs1 & Hi1 & _).
  destruct (mx_expect inlen pit_RightDelim x_special s1 rd l Hs1 Hi1 Hrd) as (s2 & He & Hs2 & Hi2).
  exists s2. split; [|split; assumption].
  unfold begin_tag. rewrite Hn1. cbn [cbind]. rewrite Ha.
  pose proof (special_types _ _ Ha) as Hin. unfold tis.
  cbn [In] in Hin. destruct Hin as [E|[E|[E|[E|[E|[E|[E|[]]]]]]]]; rewrite <- E; eval_tests; rewrite He; reflexivity.
Qed.

Lemma begin_tag_literal kw rd tx ld2 ke rd2 l s : stream (c_p s) = kw :: rd :: tx :: ld2 :: ke :: rd2 :: l -> inv (c_p s) ->
  t_typ kw = pit_Literal -> t_typ rd = pit_RightDelim -> t_typ tx = pit_Text -> t_typ ld2 = pit_LeftDelim ->
  t_typ ke = pit_LiteralEnd -> t_typ rd2 = pit_RightDelim ->
  exists s', btag s = COk (Some (NRawText (t_pos tx) (t_val tx))) s' /\ stream (c_p s') = l /\ inv (c_p s').
Proof.
  intros Hs Hi Hkw Hrd Htx Hld2 Hke Hrd2.
  destruct (c_next_stream s kw _ Hs Hi) as (s1 & Hn1 & Hs1 & Hi1 & _).
  destruct (mx_expect inlen pit_RightDelim x_literal s1 rd _ Hs1 Hi1 Hrd) as (s2 & E2 & Hs2 & Hi2).
  destruct (mx_expect inlen pit_Text x_literal s2 tx _ Hs2 Hi2 Htx) as (s3 & E3 & Hs3 & Hi3).
  destruct (mx_expect inlen pit_LeftDelim x_literal s3 ld2 _ Hs3 Hi3 Hld2) as (s4 & E4 & Hs4 & Hi4).
  destruct (mx_expect inlen pit_LiteralEnd x_literal s4 ke _ Hs4 Hi4 Hke) as (s5 & E5 & Hs5 & Hi5).
  destruct (mx_expect inlen pit_RightDelim x_literal s5 rd2 _ Hs5 Hi5 Hrd2) as (s6 & E6 & Hs6 & Hi6).
  exists s6. split; [|split; assumption].
  unfold begin_tag. rewrite Hn1. cbn [cbind]. unfold tis. rewrite Hkw. eval_tests.
  rewrite E2. cbn [cbind]. rewrite E3. cbn [cbind]. rewrite E4. cbn [cbind]. rewrite E5. cbn [cbind]. rewrite E6. reflexivity.
Qed.

(* parseTemplate without attributes: the body is read one level down, then "}" *)
Lemma begin_tag_template tk di rd0 l s : stream (c_p s) = tk :: di :: rd0 :: l -> inv (c_p s) ->
  t_typ tk = pit_Template -> t_typ di = pit_DotIdent -> t_typ rd0 = pit_RightDelim -> (1 <= lf)%nat ->
  exists s5, stream (c_p s5) = l /\ inv (c_p s5) /\
    btag s = cbind (w u_template s5) (fun body s6 => cbind (c_expect inlen pit_RightDelim x_template s6) (fun _ s7 =>
               COk (Some (NTemplate (t_pos tk) (c_ns s6 ++ t_val di) body 0 false)) s7)).
Proof.
  intros Hs Hi Htk Hdi Hrd0 Hlf.
  destruct (c_next_stream s tk _ Hs Hi) as (s1 & Hn1 & Hs1 & Hi1 & _).
  destruct (mx_expect inlen pit_DotIdent x_template s1 di _ Hs1 Hi1 Hdi) as (s2 & He2 & Hs2 & Hi2).
  destruct (c_next_stream s2 rd0 _ Hs2 Hi2) as (s3 & Hn3 & Hs3 & Hi3 & Hsb3 & Hib3).
  destruct (mx_expect inlen pit_RightDelim x_template (c_backup s3) rd0 _ Hsb3 Hib3 Hrd0) as (s5 & He5 & Hs5 & Hi5).
  exists s5. split; [exact Hs5|]. split; [exact Hi5|].
  unfold begin_tag. rewrite Hn1. cbn [cbind]. unfold tis. rewrite Htk. eval_tests.
  unfold parse_template. rewrite He2. cbn [cbind].
  destruct lf as [|lf']; [inversion Hlf|]. cbn [attrs_loop]. rewrite Hn3. cbn [cbind]. unfold tis. rewrite Hrd0. eval_tests. cbn [cbind].
  change (parse_autoescape inlen [] (c_backup s3)) with (@COk N 0 (c_backup s3)). cbn [cbind].
  change (bool_attr inlen [] k_private false (c_backup s3)) with (COk false (c_backup s3)). cbn [cbind].
  rewrite He5. cbn [cbind]. destruct (w u_template s5); cbn [cbind]; try reflexivity.
  match goal with |- context [c_expect inlen pit_RightDelim x_template ?st] => destruct (c_expect inlen pit_RightDelim x_template st); reflexivity end.
Qed.

Variable until : list N.
Hypothesis Hut : one_of pit_Text until = false.
Hypothesis Hul : one_of pit_LeftDelim until = false.
Hypothesis Hus : forall t o, assoc t parser_special_chars = Some o -> one_of t until = false.
Hypothesis Hult : one_of pit_Literal until = false.

Lemma tot_text_u token0 s1 s2 t nx l : skip_comments lf token0 s1 = COk t s2 -> t_typ t = pit_Text ->
  t_typ nx <> pit_Text -> stream (c_p s2) = nx :: l -> inv (c_p s2) -> (1 <= lf)%nat ->
  exists s5, stream (c_p s5) = nx :: l /\ inv (c_p s5) /\
    forall rt, rawtext_run (t_val t) (tis token0 pit_Comment) (tis nx pit_Comment) = Ok rt ->
      tot token0 until s1 = COk (match rt with [] => None | _ => Some (NRawText (t_pos t) rt) end, false) s5.
Proof using Hut Hul Hus Hult.
  intros Hsk Ht Hnx Hs2 Hi2 Hlf.
  assert (Hu : one_of (t_typ t) until = false) by (rewrite Ht; exact Hut).
  assert (Hnt : tis nx pit_Text = false) by (unfold tis; apply N.eqb_neq; exact Hnx).
  assert (Htt : tis t pit_Text = true) by (unfold tis; rewrite Ht; reflexivity).
  assert (Hld : tis t pit_LeftDelim = false) by (unfold tis; rewrite Ht; reflexivity).
  destruct (c_next_stream s2 nx l Hs2 Hi2) as (s2' & Hn2 & Hs2' & Hi2' & Hsb & Hib).
  destruct (c_next_stream (c_backup s2') nx l Hsb Hib) as (s4 & Hn4 & Hs4 & Hi4 & Hsb4 & Hib4).
  exists (c_backup s4). split; [exact Hsb4|]. split; [exact Hib4|]. intros rt Hrt.
  unfold text_or_tag. rewrite Hsk. cbn [cbind]. rewrite Hu, Hn2. cbn [cbind]. rewrite Hld. cbn [andb]. cbv zeta. rewrite Htt.
  destruct lf as [|lf']; [inversion Hlf|]. cbn [text_run]. rewrite Hn4. cbn [cbind]. rewrite Hnt. cbn [cbind fst snd]. rewrite Hrt.
  destruct rt; reflexivity.
Qed.

Lemma text_iter_u pre t nx l pos acc s : Forall is_comment pre -> t_typ t = pit_Text ->
  t_typ nx <> pit_Text ->
  stream (c_p s) = pre ++ t :: nx :: l -> inv (c_p s) -> (length pre + 2 <= lf)%nat ->
  exists pos1 s5, stream (c_p s5) = nx :: l /\ inv (c_p s5) /\
    forall rt, rawtext_run (t_val t) (flag pre) (tis nx pit_Comment) = Ok rt -> forall f,
      loop (S f) until pos acc s =
      loop f until (Some pos1) (match rt with [] => acc | _ => acc ++ [NRawText (t_pos t) rt] end) s5.
Proof using Hut Hul Hus Hult.
  intros Hpre Ht Hnx Hs Hi Hlf.
  destruct (skip_pre lf pre t (nx :: l) s Hpre ltac:(rewrite Ht; discriminate) Hs Hi Hlf) as (token0 & s1 & s2 & Hn1 & Hsk & Hfl & Hs2 & Hi2).
  destruct (tot_text_u token0 s1 s2 t nx l Hsk Ht Hnx Hs2 Hi2 ltac:(lia)) as (s5 & Hs5 & Hi5 & Hrun).
  exists (match pos with Some p => p | None => t_pos token0 end), s5. split; [exact Hs5|]. split; [exact Hi5|].
  intros rt Hrt f. rewrite Hfl in Hrun. cbn [item_list_loop]. rewrite Hn1. cbn [cbind]. rewrite (Hrun rt Hrt). cbn [cbind snd fst].
  destruct rt; reflexivity.
Qed.

Lemma ld_common pre ld t2 l s : Forall is_comment pre -> t_typ ld = pit_LeftDelim ->
  stream (c_p s) = pre ++ ld :: t2 :: l -> inv (c_p s) -> (length pre + 2 <= lf)%nat ->
  exists token0 s1 s2 s3, c_next s = COk token0 s1 /\ skip_comments lf token0 s1 = COk ld s2 /\ c_next s2 = COk t2 s3 /\
    stream (c_p s3) = l /\ inv (c_p s3) /\ stream (c_p (c_backup s3)) = t2 :: l /\ inv (c_p (c_backup s3)).
Proof using All.
  intros Hpre Hld Hs Hi Hlf.
  destruct (skip_pre lf pre ld (t2 :: l) s Hpre ltac:(rewrite Hld; discriminate) Hs Hi Hlf) as (token0 & s1 & s2 & Hn1 & Hsk & _ & Hs2 & Hi2).
  destruct (c_next_stream s2 t2 l Hs2 Hi2) as (s3 & Hn3 & Hs3 & Hi3 & Hsb & Hib).
  exists token0, s1, s2, s3. auto 10.
Qed.

Lemma ld_iter_u pre ld t2 l pos acc s : Forall is_comment pre -> t_typ ld = pit_LeftDelim -> one_of (t_typ t2) until = false ->
  stream (c_p s) = pre ++ ld :: t2 :: l -> inv (c_p s) -> (length pre + 2 <= lf)%nat ->
  exists pos1 sb, stream (c_p sb) = t2 :: l /\ inv (c_p sb) /\
    forall f, loop (S f) until pos acc s =
      cbind (btag sb) (fun n s' => loop f until (Some pos1) (match n with Some n => acc ++ [n] | None => acc end) s').
Proof using Hut Hul Hus Hult.
  intros Hpre Hld Hce Hs Hi Hlf.
  destruct (ld_common pre ld t2 l s Hpre Hld Hs Hi Hlf) as (token0 & s1 & s2 & s3 & Hn1 & Hsk & Hn3 & Hs3 & Hi3 & Hsb & Hib).
  assert (H1 : one_of (t_typ ld) until = false) by (rewrite Hld; exact Hul).
  assert (H2 : tis ld pit_Text = false) by (unfold tis; rewrite Hld; reflexivity).
  assert (H3 : tis ld pit_LeftDelim = true) by (unfold tis; rewrite Hld; reflexivity).
  exists (match pos with Some p => p | None => t_pos token0 end), (c_backup s3). split; [exact Hsb|]. split; [exact Hib|].
  intros f. cbn [item_list_loop]. rewrite Hn1. cbn [cbind]. unfold text_or_tag. rewrite Hsk. cbn [cbind].
  rewrite H1, Hn3. cbn [cbind]. rewrite Hce, Bool.andb_false_r. cbv zeta. rewrite H2, H3.
  destruct (btag (c_backup s3)); reflexivity.
Qed.

Lemma halt_iter pre ld u l pos acc s f : Forall is_comment pre -> t_typ ld = pit_LeftDelim -> one_of (t_typ u) until = true ->
  stream (c_p s) = pre ++ ld :: u :: l -> inv (c_p s) -> (length pre + 2 <= lf)%nat ->
  exists pos1 s', loop (S f) until pos acc s = COk (NList pos1 acc) s' /\ stream (c_p s') = l /\ inv (c_p s').
Proof using Hut Hul Hus Hult.
  intros Hpre Hld Hu Hs Hi Hlf.
  destruct (ld_common pre ld u l s Hpre Hld Hs Hi Hlf) as (token0 & s1 & s2 & s3 & Hn1 & Hsk & Hn3 & Hs3 & Hi3 & _ & _).
  assert (H1 : one_of (t_typ ld) until = false) by (rewrite Hld; exact Hul).
  assert (H3 : tis ld pit_LeftDelim = true) by (unfold tis; rewrite Hld; reflexivity).
  exists (match pos with Some p => p | None => t_pos token0 end), s3. split; [|split; assumption].
  cbn [item_list_loop]. rewrite Hn1. cbn [cbind]. unfold text_or_tag. rewrite Hsk. cbn [cbind].
  rewrite H1, Hn3. cbn [cbind]. rewrite Hu, H3. cbn [andb cbind snd]. reflexivity.
Qed.

Lemma tag_iter_u o tg : tagitems o tg -> forall pre l pos acc s, Forall is_comment pre ->
  stream (c_p s) = pre ++ tg ++ l -> inv (c_p s) -> (length pre + 2 <= lf)%nat ->
  exists pos1 p s', stream (c_p s') = l /\ inv (c_p s') /\
    forall f, loop (S f) until pos acc s = loop f until (Some pos1) (acc ++ [NRawText p o]) s'.
Proof using Hut Hul Hus Hult.
  intros Htg pre l pos acc s Hpre Hs Hi Hlf. destruct Htg as [o ld c rd Hld Hc Hrd|o ld kw rd tx ld2 ke rd2 Hld Hkw Hrd Htx Hval Hld2 Hke Hrd2].
  - cbn [app] in Hs. destruct (ld_iter_u pre ld c (rd :: l) pos acc s Hpre Hld (Hus _ _ Hc) Hs Hi Hlf) as (pos1 & sb & Hsb & Hib & Hrun).
    destruct (begin_tag_special c rd l o sb Hsb Hib Hc Hrd) as (s' & Hb & Hs' & Hi').
    exists pos1, (t_pos c), s'. split; [exact Hs'|]. split; [exact Hi'|]. intros f. rewrite Hrun, Hb. reflexivity.
  - assert (Hce : one_of (t_typ kw) until = false) by (rewrite Hkw; exact Hult).
    cbn [app] in Hs. destruct (ld_iter_u pre ld kw (rd :: tx :: ld2 :: ke :: rd2 :: l) pos acc s Hpre Hld Hce Hs Hi Hlf) as (pos1 & sb & Hsb & Hib & Hrun).
    destruct (begin_tag_literal kw rd tx ld2 ke rd2 l sb Hsb Hib Hkw Hrd Htx Hld2 Hke Hrd2) as (s' & Hb & Hs' & Hi').
    exists pos1, (t_pos tx), s'. split; [exact Hs'|]. split; [exact Hi'|]. intros f. rewrite Hrun, Hb, <- Hval. reflexivity.
Qed.

(* one piece: its text item, if the scanner sent one, is one iteration, and gives the piece's normalisation
   under the two flags "comments skipped before it" and "a comment follows" *)
Lemma piece_step x txt pre nx l acc pos s : is_text_of x txt -> no_nul x -> Forall is_comment pre -> t_typ nx <> pit_Text ->
  stream (c_p s) = pre ++ txt ++ nx :: l -> inv (c_p s) -> (length (pre ++ txt) + 2 <= lf)%nat ->
  exists pre' nodes pos' s', Forall is_comment pre' /\ (length pre' <= length pre)%nat /\ flag pre' = (flag pre && droppable x)%bool /\
    Forall is_raw nodes /\ concat (map raw_text_of nodes) = normalize (flag pre) (tis nx pit_Comment) x /\
    stream (c_p s') = pre' ++ nx :: l /\ inv (c_p s') /\
    forall f, loop (length txt + f) until pos acc s = loop f until pos' (acc ++ nodes) s'.
Proof.
  intros Htx Hnx Hpre Hnt Hs Hi Hlf. unfold is_text_of in Htx. destruct (droppable x) eqn:Ed.
  - subst txt. exists pre, [], pos, s. rewrite (droppable_norm _ _ _ Ed), Bool.andb_true_r, app_nil_r. repeat split; auto.
  - destruct Htx as (p & ->). set (t := {| t_typ := itemText; t_pos := p; t_val := x |}) in *.
    destruct (text_iter_u pre t nx l pos acc s Hpre eq_refl Hnt Hs Hi ltac:(rewrite app_length in Hlf; cbn in Hlf; lia))
      as (pos1 & s5 & Hs5 & Hi5 & Hrun).
    specialize (Hrun _ (rawtext_run_spec x (flag pre) (tis nx pit_Comment) Hnx)).
    exists [], (raw_nodes p (normalize (flag pre) (tis nx pit_Comment) x)), (Some pos1), s5.
    destruct (raw_nodes_raw p (normalize (flag pre) (tis nx pit_Comment) x)) as [Hraw Hcat].
    rewrite Bool.andb_false_r. repeat split; auto; [cbn; lia|].
    intros f. cbn [length Nat.add]. rewrite Hrun. apply f_equal2; [apply raw_nodes_acc|reflexivity].
Qed.

(* itemList over the items of one stretch, followed by an item [nx] that is neither text nor comment ("{" or
   EOF): after k iterations the loop is in front of [nx], the comments that follow the last text item still unread *)
Lemma stretch_nodes_u : forall pcs its, pshape pcs its -> Forall no_nul pcs ->
  forall pre, Forall is_comment pre -> forall nx l acc pos s,
  t_typ nx <> pit_Text -> t_typ nx <> pit_Comment ->
  stream (c_p s) = pre ++ its ++ nx :: l -> inv (c_p s) -> (length (pre ++ its) + 2 <= lf)%nat ->
  exists k pre' nodes pos' s', (k <= length its)%nat /\ Forall is_comment pre' /\ (length pre' <= length (pre ++ its))%nat /\
     Forall is_raw nodes /\ concat (map raw_text_of nodes) = norm_pieces (flag pre) pcs /\
     stream (c_p s') = pre' ++ nx :: l /\ inv (c_p s') /\
     forall f, loop (k + f) until pos acc s = loop f until pos' (acc ++ nodes) s'.
Proof using Hut Hul Hus Hult.
  intros pcs its Hsh. induction Hsh as [x txt Htx|x x' txt c rest items' Htx Hx Hc Hsh IH];
    intros Hnn pre Hpre nx l acc pos s Hnt Hnc Hs Hi Hlf; inversion Hnn as [|? ? Hnx Hnr]; subst.
  - destruct (piece_step x txt pre nx l acc pos s Htx Hnx Hpre Hnt Hs Hi Hlf) as (pre' & nodes & pos' & s' & Hpre' & Hlen & _ & Hraw & Hcat & Hs' & Hi' & Hrun).
    assert (Hce : tis nx pit_Comment = false) by (unfold tis; apply N.eqb_neq; exact Hnc). rewrite Hce in Hcat.
    exists (length txt), pre', nodes, pos', s'. rewrite norm_pieces_one, app_length. repeat split; auto; lia.
  - assert (Hc' : t_typ c = pit_Comment) by exact Hc.
    assert (Hs0 : stream (c_p s) = pre ++ txt ++ c :: (items' ++ nx :: l)) by (rewrite Hs, <- app_assoc; reflexivity).
    rewrite !app_length in Hlf. cbn [length] in Hlf.
    destruct (piece_step x' txt pre c (items' ++ nx :: l) acc pos s Htx (no_nul_tail x x' Hx Hnx) Hpre ltac:(rewrite Hc'; discriminate) Hs0 Hi
                ltac:(rewrite app_length; lia)) as (pre1 & nodes1 & pos1 & s1 & Hpre1 & Hlen1 & Hfl1 & Hraw1 & Hcat1 & Hs1 & Hi1 & Hrun1).
    assert (Hs1' : stream (c_p s1) = (pre1 ++ [c]) ++ items' ++ nx :: l) by (rewrite Hs1, <- app_assoc; reflexivity).
    destruct (IH Hnr (pre1 ++ [c]) ltac:(apply Forall_app; split; [exact Hpre1|constructor; [exact Hc'|constructor]]) nx l (acc ++ nodes1) pos1 s1 Hnt Hnc Hs1' Hi1
                ltac:(rewrite !app_length; cbn [length]; lia)) as (k & pre' & nodes & pos' & s' & Hk & Hpre' & Hlen & Hraw & Hcat & Hst & Hiv & Hrun).
    exists (length txt + k)%nat, pre', (nodes1 ++ nodes), pos', s'.
    rewrite !app_length in *. cbn [length] in *. split; [lia|]. split; [exact Hpre'|]. split; [lia|].
    split; [apply Forall_app; split; assumption|]. split; [|split; [exact Hst|split; [exact Hiv|]]].
    + pose proof (pshape_nonempty _ _ Hsh) as Hne. destruct rest as [|y rest']; [congruence|].
      rewrite map_app, concat_app, Hcat1, Hcat, norm_pieces_cons, (norm_tail (flag pre) x x' Hx).
      unfold tis. rewrite Hc'. destruct pre1; reflexivity.
    + intros f. rewrite <- Nat.add_assoc, Hrun1, Hrun, app_assoc. reflexivity.
Qed.

Lemma text_seg_run pcs its o tg pre l acc pos s : pshape pcs its -> Forall no_nul pcs -> tagitems o tg -> Forall is_comment pre ->
  stream (c_p s) = pre ++ its ++ tg ++ l -> inv (c_p s) -> (length (pre ++ its) + 2 <= lf)%nat ->
  exists k nodes p pos1 s', (k <= length its)%nat /\ Forall is_raw nodes /\ concat (map raw_text_of nodes) = norm_pieces (flag pre) pcs /\
    stream (c_p s') = l /\ inv (c_p s') /\
    forall f, loop (k + S f) until pos acc s = loop f until (Some pos1) ((acc ++ nodes) ++ [NRawText p o]) s'.
Proof.
  intros Hps Hnn Htg Hpre Hs Hi Hlf. destruct (tagitems_head o tg Htg) as (ld & tg' & Etg & Hld).
  assert (Hs0 : stream (c_p s) = pre ++ its ++ ld :: (tg' ++ l)) by (rewrite Hs, Etg; reflexivity).
  destruct (stretch_nodes_u pcs its Hps Hnn pre Hpre ld (tg' ++ l) acc pos s ltac:(rewrite Hld; discriminate) ltac:(rewrite Hld; discriminate) Hs0 Hi Hlf)
    as (k & pre' & nodes & pos' & s1 & Hk & Hpre' & Hlen & Hraw & Hcat & Hs1 & Hi1 & Hrun).
  assert (Hs1' : stream (c_p s1) = pre' ++ tg ++ l) by (rewrite Hs1, Etg; reflexivity).
  destruct (tag_iter_u o tg Htg pre' l pos' (acc ++ nodes) s1 Hpre' Hs1' Hi1 ltac:(lia)) as (pos1 & p & s2 & Hs2 & Hi2 & Hrun2).
  exists k, nodes, p, pos1, s2. repeat split; auto. intros f. rewrite Hrun, Hrun2. reflexivity.
Qed.

(* itemList(until) over the items of a body that is followed by items [nx :: tl] at which the loop halts,
   in a state of which [Q] holds: "{" and an item of the until-set (halt_iter), or EOF (eof_iter) *)
Lemma mshapeT_run (Q : cst -> Prop) nx tl : t_typ nx <> pit_Text -> t_typ nx <> pit_Comment ->
  (forall pre pos acc s f, Forall is_comment pre -> stream (c_p s) = pre ++ nx :: tl -> inv (c_p s) -> (length pre + 2 <= lf)%nat ->
     exists pos1 s', loop (S f) until pos acc s = COk (NList pos1 acc) s' /\ Q s') ->
  forall pcs rp items, mshapeT (nx :: tl) pcs rp items ->
  Forall no_nul pcs -> Forall (fun q => Forall no_nul (snd q)) rp ->
  forall pre, Forall is_comment pre -> forall f acc pos s,
  stream (c_p s) = pre ++ items -> inv (c_p s) -> (length (pre ++ items) + 2 <= lf)%nat -> (length items <= f)%nat ->
  exists pos' nodes s', loop f until pos acc s = COk (NList pos' (acc ++ nodes)) s' /\ Q s' /\
     Forall is_raw nodes /\ concat (map raw_text_of nodes) = norm_pieces (flag pre) pcs ++ mix_out rp.
Proof.
  intros Hnt Hnc Hhalt pcs rp items Hsh. induction Hsh as [pcs its Hps|pcs its o tg pcs' rest items' Hps Htg Hsh IH];
    intros Hnn Hnr pre Hpre f acc pos s Hs Hi Hlf Hf; rewrite !app_length in Hlf; rewrite !app_length in Hf.
  - destruct (stretch_nodes_u pcs its Hps Hnn pre Hpre nx tl acc pos s Hnt Hnc Hs Hi ltac:(rewrite app_length; lia))
      as (k & pre' & nodes & pos' & s' & Hk & Hpre' & Hlen & Hraw & Hcat & Hst & Hiv & Hrun).
    rewrite app_length in Hlen. cbn [length] in Hf, Hlf.
    replace f with (k + S (f - k - 1))%nat by lia. rewrite Hrun.
    destruct (Hhalt pre' pos' (acc ++ nodes) s' (f - k - 1)%nat Hpre' Hst Hiv ltac:(lia)) as (pos1 & s'' & Hrun2 & HQ).
    exists pos1, nodes, s''. cbn [mix_out]. rewrite app_nil_r. auto.
  - inversion Hnr as [|? ? Hnn' Hnr']; subst. cbn [snd] in Hnn'.
    destruct (text_seg_run pcs its o tg pre items' acc pos s Hps Hnn Htg Hpre Hs Hi ltac:(rewrite app_length; lia))
      as (k & nodes & p & pos1 & s2 & Hk & Hraw & Hcat & Hs2 & Hi2 & Hrun).
    destruct (tagitems_head o tg Htg) as (ld & tg' & -> & _). cbn [length] in Hf, Hlf.
    replace f with (k + S (f - k - 1))%nat by lia. rewrite Hrun.
    destruct (IH Hnn' Hnr' [] ltac:(constructor) (f - k - 1)%nat ((acc ++ nodes) ++ [NRawText p o]) (Some pos1) s2 Hs2 Hi2 ltac:(cbn [app]; lia) ltac:(lia))
      as (pos2 & nodes2 & s3 & Hrun3 & HQ & Hraw3 & Hcat3).
    exists pos2, (nodes ++ NRawText p o :: nodes2), s3. split; [rewrite Hrun3, <- !app_assoc; reflexivity|]. split; [exact HQ|].
    split; [apply Forall_app; split; [exact Hraw|constructor; [exact I|exact Hraw3]]|].
    rewrite map_app, concat_app. cbn [map raw_text_of concat mix_out flag] in *. rewrite Hcat, Hcat3, <- ?app_assoc. reflexivity.
Qed.

Lemma mshapeT_nodes : forall ld u l pcs rp items, mshapeT (ld :: u :: l) pcs rp items ->
  t_typ ld = pit_LeftDelim -> one_of (t_typ u) until = true ->
  Forall no_nul pcs -> Forall (fun q => Forall no_nul (snd q)) rp ->
  forall pre, Forall is_comment pre -> forall f acc pos s,
  stream (c_p s) = pre ++ items -> inv (c_p s) -> (length (pre ++ items) + 2 <= lf)%nat -> (length items <= f)%nat ->
  exists pos' nodes s', loop f until pos acc s = COk (NList pos' (acc ++ nodes)) s' /\ stream (c_p s') = l /\ inv (c_p s') /\
     Forall is_raw nodes /\ concat (map raw_text_of nodes) = norm_pieces (flag pre) pcs ++ mix_out rp.
Proof using Hut Hul Hus Hult.
  intros ld u l pcs rp items Hsh Hld Hu Hnn Hnr pre Hpre f acc pos s Hs Hi Hlf Hf.
  destruct (mshapeT_run (fun s' => stream (c_p s') = l /\ inv (c_p s')) ld (u :: l) ltac:(rewrite Hld; discriminate) ltac:(rewrite Hld; discriminate)
              (fun pre0 pos0 acc0 s0 f0 Hpre0 Hs0 Hi0 Hlf0 => halt_iter pre0 ld u l pos0 acc0 s0 f0 Hpre0 Hld Hu Hs0 Hi0 Hlf0)
              pcs rp items Hsh Hnn Hnr pre Hpre f acc pos s Hs Hi Hlf Hf) as (pos' & nodes & s' & Hrun & [Hs' Hi'] & Hraw & Hcat).
  exists pos', nodes, s'. auto.
Qed.

End U.

Lemma special_not_until until : forallb (fun t => negb (one_of t until)) [79; 80; 81; 82; 83; 84; 85] = true ->
  forall t o, assoc t parser_special_chars = Some o -> one_of t until = false.
Proof.
  intros Hu t o H. rewrite forallb_forall in Hu. apply Bool.negb_true_iff, Hu, (special_types t o H).
Qed.

Lemma special_not_template_end t o : assoc t parser_special_chars = Some o -> one_of t u_template = false.
Proof. exact (special_not_until u_template eq_refl t o). Qed.

Section File.
Variable inlen : N.
Variable lexq : bstr -> list tok.
Variable unq : bstr -> option bstr.
Notation PE g := (lift_expr inlen parse_expr g).
Notation IL g := (item_list inlen lexq unq parse_expr expr_fuel g).

(* parse.SoyFile's itemList on "{template .name}" and what follows: the body one level down, "}", and the
   file's loop goes on with the template node *)
Lemma template_file_run ld0 tk di rd0 rest g :
  t_typ ld0 = pit_LeftDelim -> t_typ tk = pit_Template -> t_typ di = pit_DotIdent -> t_typ rd0 = pit_RightDelim -> (2 <= g)%nat ->
  exists pos1 s5, stream (c_p s5) = rest /\ inv (c_p s5) /\
    IL (S g) u_eof (cst_init (ld0 :: tk :: di :: rd0 :: rest)) =
    cbind (IL g u_template s5) (fun body s6 => cbind (c_expect inlen pit_RightDelim x_template s6) (fun _ s7 =>
      item_list_loop inlen lexq unq parse_expr expr_fuel (PE g) (IL g) g g u_eof (Some pos1)
        [NTemplate (t_pos tk) (c_ns s6 ++ t_val di) body 0 false] s7)).
Proof.
  intros Hld0 Htk Hdi Hrd0 Hg. destruct (stream_init (ld0 :: tk :: di :: rd0 :: rest)) as [Hs0 Hi0].
  destruct (ld_iter_u inlen lexq unq parse_expr expr_fuel (PE g) (IL g) g u_eof eq_refl eq_refl (special_not_until u_eof eq_refl) eq_refl
              [] ld0 tk (di :: rd0 :: rest) None [] (cst_init (ld0 :: tk :: di :: rd0 :: rest)) ltac:(constructor) Hld0 ltac:(rewrite Htk; reflexivity)
              Hs0 Hi0 ltac:(cbn [length]; lia)) as (pos1 & sb & Hsb & Hib & Hrun).
  destruct (begin_tag_template inlen lexq unq parse_expr expr_fuel (PE g) (IL g) g tk di rd0 rest sb Hsb Hib Htk Hdi Hrd0 ltac:(lia))
    as (s5 & Hs5 & Hi5 & Hb).
  exists pos1, s5. split; [exact Hs5|]. split; [exact Hi5|].
  cbn [item_list]. rewrite (Hrun g), Hb.
  destruct (IL g u_template s5); cbn [cbind]; try reflexivity.
  match goal with |- context [c_expect inlen pit_RightDelim x_template ?st] => destruct (c_expect inlen pit_RightDelim x_template st); reflexivity end.
Qed.

Lemma template_file_nodes ld0 tk di rd0 body ld2 te rd2 e pcs rp :
  t_typ ld0 = pit_LeftDelim -> t_typ tk = pit_Template -> t_typ di = pit_DotIdent -> t_typ rd0 = pit_RightDelim ->
  (forall term, mshapeT term pcs rp (body ++ term)) ->
  t_typ ld2 = pit_LeftDelim -> t_typ te = pit_TemplateEnd -> t_typ rd2 = pit_RightDelim -> t_typ e = pit_EOF ->
  Forall no_nul pcs -> Forall (fun q => Forall no_nul (snd q)) rp ->
  exists F pos tp nm ae pv bpos nodes s',
    item_list inlen lexq unq parse_expr expr_fuel F u_eof (cst_init (ld0 :: tk :: di :: rd0 :: body ++ [ld2; te; rd2; e]))
      = COk (NList pos [NTemplate tp nm (NList bpos nodes) ae pv]) s' /\
    Forall is_raw nodes /\ concat (map raw_text_of nodes) = norm_pieces false pcs ++ mix_out rp.
Proof.
  intros Hld0 Htk Hdi Hrd0 Hbody Hld2 Hte Hrd2 He Hnn Hnr.
  set (g1 := (length (body ++ [ld2; te; rd2; e]) + 2)%nat).
  destruct (template_file_run ld0 tk di rd0 (body ++ [ld2; te; rd2; e]) (S g1) Hld0 Htk Hdi Hrd0 ltac:(lia)) as (pos1 & s5 & Hs5 & Hi5 & Hrun).
  destruct (mshapeT_nodes inlen lexq unq parse_expr expr_fuel (PE g1) (IL g1) g1
              u_template eq_refl eq_refl special_not_template_end eq_refl ld2 te [rd2; e] pcs rp (body ++ [ld2; te; rd2; e]) (Hbody _)
              Hld2 ltac:(rewrite Hte; reflexivity) Hnn Hnr [] ltac:(constructor) (S g1) [] None s5 Hs5 Hi5 ltac:(cbn [app]; lia) ltac:(lia))
    as (bpos & nodes & s6 & Hbd & Hs6 & Hi6 & Hraw & Hcat).
  destruct (mx_expect inlen pit_RightDelim x_template s6 rd2 _ Hs6 Hi6 Hrd2) as (s7 & He7 & Hs7 & Hi7).
  destruct (eof_iter inlen lexq unq parse_expr expr_fuel (PE (S g1)) (IL (S g1)) (S g1) [] e [] g1 (Some pos1)
              [NTemplate (t_pos tk) (c_ns s6 ++ t_val di) (NList bpos ([] ++ nodes)) 0 false] s7 ltac:(constructor) He Hs7 Hi7 ltac:(cbn [length]; lia))
    as (pos2 & s' & Hend).
  exists (S (S g1)), pos2, (t_pos tk), (c_ns s6 ++ t_val di), 0, false, bpos, nodes, s'. split; [|split; [exact Hraw|exact Hcat]].
  rewrite Hrun. cbn [item_list]. rewrite Hbd. cbn [cbind]. rewrite He7. exact Hend.
Qed.

End File.
