(* Prefix determinism of the scanner (C19).

   Two inputs with a common prefix [pre]: inp1 = pre ++ r1 (the reference, e.g. a valid file) and
   inp2 = pre ++ r2 (e.g. the same file with a fault injected after pre).  [M] = 24 bytes is the
   margin: every state function reads at most a few bytes beyond the cursor it ends at (one rune of
   look-ahead, the keywords "@param", "{/literal}}", a backed-up rune), so a step that ends at
   least M bytes before the end of the common prefix behaves identically on both inputs.

   [step_det]: one state function (all fifteen).  [steps_det]: k steps -- if the reference scan
   passes only through configurations that are live (not the nil state), with start <= pos and the
   cursor at least M bytes before |pre|, the scan of the other input passes through the very same
   configurations (same items sent, same cursor, same lastEmit).

   One lemma per scanning loop and state function says where it leaves the cursor and what it has read
   (LexPrefixStates / LexPrefixHeader / LexPrefixStep, composed from the primitives with the rules of LexPrefix.v);
   lexHeaderParam needs where skipSpace stops after the scan of the type has backed up over trailing white space:
   header_type_loop_skip. *)
From Soy Require Import Model.Bytes Model.Utf8 Model.Outcome Model.Token Model.Lexer Generated.Tables
  Proofs.LexPrefix Proofs.LexPrefixStates Proofs.LexPrefixHeader Proofs.LexPrefixStep.
From Coq Require Import ZifyBool Lia List.
Import ListNotations.
Open Scope Z_scope.

Section Main.
Variable ul ud : Z -> bool.
Variable pre r1 r2 : bstr.
Variable base : Z.
Notation inp1 := (pre ++ r1).
Notation inp2 := (pre ++ r2).
Notation n1 := (Z.of_nat (length (pre ++ r1))).
Notation n2 := (Z.of_nat (length (pre ++ r2))).
Notation h := (Z.of_nat (length pre)).

(* the look-ahead of each state function *)
Definition margin (st : lstate) : Z :=
  match st with
  | LText => m_text | LLeftDelim => m_ldelim | LRightDelim => m_rdelim | LRightDelimEnd => m_rdelim_end
  | LBeginTag => m_begin_tag | LInsideTag => m_inside | LSoyDoc => m_soydoc | LLineComment => m_linec
  | LBlockComment => m_blockc | LString _ => m_string | LIdent => m_ident | LHeaderParam => m_header
  | LCss => m_css | LLiteral => m_literal | LNumber => m_number | LDone => 0
  end.
Lemma margin_le_M st : 0 <= margin st <= M.
Proof. destruct st; vm_compute; split; discriminate. Qed.

Definition good (st : lstate) (l : lx) : Prop :=
  l_pos l + M <= h /\ st <> LDone /\ l_start l <= l_pos l.

(* one step, with the margin of the state function that is run *)
Theorem step_det_m st l res :
  l_start l <= l_pos l ->
  step ul ud inp1 n1 base st l = Ok res -> l_pos (snd res) + margin st <= h -> fst res <> LDone ->
  step ul ud inp2 n2 base st l = Ok res.
Proof.
  intros Hs H Hb Hl. destruct st; cbn [step margin] in *.
  - exact (tracks_det _ _ _ _ _ (lex_text_tracks pre r1 r2 base l) res H Hb).
  - exact (tracks_det _ _ _ _ _ (lex_left_delim_tracks pre r1 r2 base l) res H Hb).
  - exact (tracks_det _ _ _ _ _ (lex_right_delim_tracks pre r1 r2 base l) res H Hb).
  - exact (tracks_det _ _ _ _ _ (lex_right_delim_end_tracks pre r1 r2 base l) res H Hb).
  - exact (tracks_det _ _ _ _ _ (lex_begin_tag_tracks pre r1 r2 l) res H Hb).
  - exact (tracks_det _ _ _ _ _ (lex_inside_tag_tracks pre r1 r2 base l) res H Hb).
  - exact (tracks_det _ _ _ _ _ (lex_soydoc_tracks pre r1 r2 base l) res H Hb).
  - exact (tracks_det _ _ _ _ _ (lex_line_comment_tracks pre r1 r2 base l) res H Hb).
  - exact (tracks_det _ _ _ _ _ (lex_block_comment_tracks pre r1 r2 base l) res H Hb).
  - exact (tracks_det _ _ _ _ _ (lex_string_tracks pre r1 r2 base quote l) res H Hb).
  - exact (tracks_det _ _ _ _ _ (lex_ident_tracks ul ud pre r1 r2 base l) res H (conj Hb Hl)).
  - exact (tracks_det _ _ _ _ _ (lex_header_param_tracks ul ud pre r1 r2 base l) res H (conj Hb Hl)).
  - exact (tracks_det _ _ _ _ _ (lex_css_tracks pre r1 r2 base l) res H (conj Hb Hl)).
  - exact (tracks_det _ _ _ _ _ (lex_literal_tracks pre r1 r2 base l) res H (conj Hb Hl)).
  - exact (tracks_det _ _ _ _ _ (lex_number_tracks ul ud pre r1 r2 base l Hs) res H (conj Hb Hl)).
  - inversion H; subst. destruct (Hl eq_refl).
Qed.

Theorem step_det st l res :
  l_start l <= l_pos l ->
  step ul ud inp1 n1 base st l = Ok res -> l_pos (snd res) + M <= h -> fst res <> LDone ->
  step ul ud inp2 n2 base st l = Ok res.
Proof. intros Hs H Hb Hl. apply step_det_m; try assumption. pose proof (margin_le_M st). lia. Qed.

(* k steps of the machine (the definition of Proofs/LexTokens.v) *)
Fixpoint psteps (inp : bstr) (k : nat) (st : lstate) (l : lx) : outcome (lstate * lx) :=
  match k with
  | O => Ok (st, l)
  | S k' => '(st', l') <- step ul ud inp (Z.of_nat (length inp)) base st l ;; psteps inp k' st' l'
  end.

(* k steps, per-state margins: every configuration on the way is live with start <= pos, and every step ends
   [margin] of the state function it ran before the end of the common prefix *)
Theorem steps_det_m : forall k st l st' l',
  psteps inp1 k st l = Ok (st', l') ->
  (forall j, (j <= k)%nat -> forall stj lj, psteps inp1 j st l = Ok (stj, lj) -> stj <> LDone /\ l_start lj <= l_pos lj) ->
  (forall j, (j < k)%nat -> forall stj lj stn ln, psteps inp1 j st l = Ok (stj, lj) -> psteps inp1 (S j) st l = Ok (stn, ln) ->
     l_pos ln + margin stj <= h) ->
  psteps inp2 k st l = Ok (st', l').
Proof.
  induction k as [|k IH]; intros st l st' l' H Hg Hm; [exact H|].
  cbn [psteps] in H |- *.
  destruct (step ul ud inp1 n1 base st l) as [[st1 l1]| | | | |] eqn:E; cbn [bind] in H; try discriminate.
  destruct (Hg 0%nat ltac:(lia) st l eq_refl) as (G1 & G2).
  assert (E1 : psteps inp1 1 st l = Ok (st1, l1)) by (cbn [psteps]; rewrite E; reflexivity).
  destruct (Hg 1%nat ltac:(lia) st1 l1 E1) as (K1 & K2).
  pose proof (Hm 0%nat ltac:(lia) st l st1 l1 eq_refl E1) as K0.
  rewrite (step_det_m st l (st1, l1) G2 E K0 K1). cbn [bind].
  apply IH; [exact H| |].
  - intros j Hj stj lj Hs. apply (Hg (S j) ltac:(lia) stj lj). cbn [psteps]. rewrite E. exact Hs.
  - intros j Hj stj lj stn ln Hs Hn. apply (Hm (S j) ltac:(lia) stj lj stn ln).
    + cbn [psteps]. rewrite E. exact Hs.
    + cbn [psteps]. rewrite E. exact Hn.
Qed.

Theorem steps_det : forall k st l st' l',
  psteps inp1 k st l = Ok (st', l') ->
  (forall j, (j <= k)%nat -> forall stj lj, psteps inp1 j st l = Ok (stj, lj) -> good stj lj) ->
  psteps inp2 k st l = Ok (st', l').
Proof.
  intros k st l st' l' H Hg. apply steps_det_m; [exact H| |].
  - intros j Hj stj lj Hs. destruct (Hg j Hj stj lj Hs) as (_ & G1 & G2). auto.
  - intros j Hj stj lj stn ln Hs Hn. destruct (Hg (S j) ltac:(lia) stn ln Hn) as (G0 & _). pose proof (margin_le_M stj). lia.
Qed.
End Main.
