(* C17 at command level, rules for {call} and {css}: parseCall / parseCallParams / parseAttrs /
   parseQuotedExpr / parseCss of Model/Parser.v.

   External behaviour enters as Section variables with their contracts stated:
     [unq]   strconv.Unquote, used by parseAttrs on the string item of an attribute;
     [lexq]  the scanner run on an attribute value (lexExpr);
     [efuel] the budget the model gives the nested expression parse.
   parseQuotedExpr positions the nested items relative to the most recently read item
   (token[0] / token[peekCount-1]); the rules track peekCount far enough to know that this item
   is the "}" (or "/}") that closes the tag, which the Spec puts at position 0. *)
From Soy Require Import Model.Bytes Model.Outcome Model.Ast Model.Token Model.RawText Model.ExprParser Model.Parser Generated.Tables
  Spec.ExprSyntax Spec.CmdSyntax Proofs.BytesBase Proofs.ExprParserRules Proofs.ExprParserProofs Proofs.CmdRoundtripBase Proofs.CmdRoundtripRules.
From Coq Require Import Lia.
Open Scope N_scope.

Definition le1 (p : pst) : Prop := (p_peek p <= 1)%nat.
(* nothing is pushed back and t is the item read last *)
Definition fresh (p : pst) (t : tok) : Prop := p_peek p = 0%nat /\ p_tok0 p = t /\ stream p = p_rest p.

Lemma next_fresh st t st1 : le1 st -> p_next st = (t, st1) -> fresh st1 t.
Proof.
  destruct st as [rest t0 t1 pk rc]. unfold le1, fresh, p_next, recv, stream. cbn [p_peek p_rest p_tok0 p_tok1 p_recv].
  intros Hle. destruct pk as [|[|pk]]; [destruct rest|..]; intros E; injection E as <- <-; cbn; auto; lia.
Qed.

Lemma fresh_le1 p t : fresh p t -> le1 p.
Proof. intros (H & _). unfold le1. lia. Qed.
Lemma fresh_backup_le1 p t : fresh p t -> le1 (p_backup p).
Proof. intros (H & _). unfold le1, p_backup. cbn. lia. Qed.
Lemma fresh_err_tok p t : fresh p t -> err_tok p = t.
Proof. intros (H & H0 & _). unfold err_tok. rewrite H. exact H0. Qed.
Lemma fresh_backup_err_tok p t : fresh p t -> err_tok (p_backup p) = t.
Proof. intros (H & H0 & _). unfold err_tok, p_backup. cbn [p_peek]. rewrite H. exact H0. Qed.
Lemma fresh_backup2 p t t1 : fresh p t -> feeds (p_backup2 p t1) (t1 :: t :: stream p).
Proof.
  intros (H & H0 & H1). unfold feeds, stream at 1, p_backup2, inv. cbn [p_peek p_tok0 p_tok1 p_rest]. rewrite H0, H1. split; [reflexivity|lia].
Qed.

Lemma shift_tok_0 ts : map (shift_tok 0) ts = ts.
Proof. induction ts as [|t r IH]; [reflexivity|]. cbn [map]. rewrite IH. destruct t. reflexivity. Qed.

Lemma bstr_eqb_refl s : bstr_eqb s s = true.
Proof. exact (BytesBase.bstr_eqb_refl s). Qed.

Section Call.
Variable ns : bstr.
Variable al : list (bstr * bstr).
Variable inlen : N.
Variable lexq : bstr -> list tok.
Variable unq : bstr -> option bstr.
Variable efuel : list tok -> nat.

(* contract of [efuel]: the budget of a nested expression parse is enough whenever some budget is *)
Hypothesis efuel_ok : forall ts e rest, Parses 0 ts e rest -> exists p', parse_expr (efuel ts) 0 (pst_init ts) = POk e p'.

Notation PE g := (lift_expr inlen parse_expr g).
Notation IL g := (item_list inlen lexq unq parse_expr efuel g).
Notation BT g := (begin_tag inlen lexq unq parse_expr efuel (PE g) (IL g) g).
Notation Run := (Run ns al).
Notation Body := (Body ns al inlen lexq unq efuel).
Notation Tag := (Tag ns al inlen lexq unq efuel).
Notation PQE := (parse_quoted_expr inlen lexq parse_expr efuel).

Section Steps.
Variables (s : cst) (p : pst) (sc : list scanrec).

(* next, when at most one item was pushed back: the item read is the one error positions refer to *)
Lemma run_next_pk t l : le1 p -> feeds p (t :: l) ->
  runs (fun p1 => fed p1 t l /\ fresh p1 t) (fun _ _ => c_next (set_ps s p sc)) s t.
Proof.
  intros Hle H. destruct (next_feeds _ _ _ H) as (p1 & Hn & H1). exists p1, sc. split; [split; [exact H1 | exact (next_fresh _ _ _ Hle Hn)]|].
  exists 0%nat. intros. unfold c_next. cbn [c_p set_ps]. rewrite (not_3_le_peek _ _ H), Hn. reflexivity.
Qed.

Lemma run_quoted str e rest : inv p -> t_pos (err_tok p) = 0 -> Parses 0 (lexq str) e rest ->
  runs (eq p) (fun _ _ => PQE str (set_ps s p sc)) s e.
Proof.
  intros Hi Hpos HP. destruct (efuel_ok _ _ _ HP) as (p' & E). exists p. eexists. split; [reflexivity|]. exists 0%nat. intros.
  unfold parse_quoted_expr. cbn [c_p set_ps].
  replace (3 <=? p_peek p)%nat with false by (symmetry; apply Nat.leb_gt; unfold inv in Hi; lia).
  rewrite Hpos.
  replace (if (N.of_nat (length str) <=? 0) && (0 <=? inlen) then 0 - N.of_nat (length str) else 0) with 0
    by (destruct ((N.of_nat (length str) <=? 0) && (0 <=? inlen)); [symmetry; apply N.sub_0_l | reflexivity]).
  rewrite shift_tok_0. rewrite E. reflexivity.
Qed.

(* the end of the attributes, as [run_attrs_end]; the closing item is the one read last *)
Lemma run_attrs_end_pk allowed acc t l : (t_typ t = pit_RightDelim \/ t_typ t = pit_RightDelimEnd) -> le1 p -> feeds p (t :: l) ->
  runs (fun p' => feeds p' (t :: l) /\ err_tok p' = t) (fun f _ => attrs_loop inlen unq f allowed acc (set_ps s p sc)) s acc.
Proof.
  intros Ht Hle H. apply runs_Sf. cbn [attrs_loop]. run (run_next_pk _ _ Hle) as p1 [(_ & H1 & _) Hf].
  assert (E : tis t pit_Ident = false /\ tis t pit_RightDelim || tis t pit_RightDelimEnd = true).
  { destruct Ht as [Ht|Ht]; rewrite !(tis_typ t _ _ Ht); vm_compute; auto. }
  destruct E as [E1 E2]. rewrite E1, E2, c_backup_set_ps. apply runs_ret. split; [exact H1 | exact (fresh_backup_err_tok _ _ Hf)].
Qed.

Lemma run_call_name_loop nx l : t_typ nx <> pit_DotIdent ->
  forall segs name p sc, feeds p (map (fun sg => tk pk_itemDotIdent 0 sg) segs ++ nx :: l) ->
  runs (fun p' => feeds p' (nx :: l)) (fun f _ => call_name_loop f name (set_ps s p sc)) s (name ++ List.concat segs).
Proof.
  intros Hnx. induction segs as [|sg segs IH]; intros name p0 sc0 H; cbn [map app] in H; apply runs_Sf; cbn [call_name_loop];
    run run_next as p1 (H1 & H1b & _).
  - rewrite (tis_ne nx _ Hnx), c_backup_set_ps. cbn [List.concat]. rewrite app_nil_r. apply runs_ret, H1b.
  - change (tis (tk pk_itemDotIdent 0 sg) pit_DotIdent) with true. cbv iota. cbn [t_val tk List.concat]. rewrite app_assoc. apply IH, H1.
Qed.

Lemma run_call_name name first r1 segs nx l : t_typ nx <> pit_DotIdent -> split_dots [] name = first :: r1 :: segs ->
  feeds p (global_toks 0 name ++ nx :: l) ->
  runs (fun p' => feeds p' (nx :: l)) (fun f _ => call_name f (set_ps s p sc)) s name.
Proof.
  intros Hnx Hsp H. unfold global_toks in H. rewrite Hsp in H. cbn [map app] in H. unfold call_name.
  run run_next as p1 [H1 _]. change (tis (tk pk_itemIdent 0 first) pit_DotIdent) with false.
  change (tis (tk pk_itemIdent 0 first) pit_Ident) with true. cbv iota.
  run run_next as p2 [H2 _]. change (tis (tk pk_itemDotIdent 0 r1) pit_DotIdent) with true. cbv iota. cbn [t_val tk].
  pose proof (split_dots_concat name []) as En. rewrite Hsp in En. cbn [List.concat app] in En. rewrite <- En, app_assoc.
  apply run_call_name_loop; assumption.
Qed.

(* parseCallParams: "{" is what nextNonComment and the orphan-text loop deliver *)
Lemma run_next_non_comment t l : t_typ t <> pit_Comment -> feeds p (t :: l) ->
  runs (fun p1 => fed p1 t l) (fun f _ => next_non_comment f (set_ps s p sc)) s t.
Proof.
  intros Ht H. apply runs_Sf. cbn [next_non_comment]. run run_next as p1 H1. rewrite (tis_ne t _ Ht). apply runs_ret, H1.
Qed.

Lemma run_orphan_text t : t_typ t <> pit_Text -> runs (eq p) (fun f _ => orphan_text inlen f f t (set_ps s p sc)) s t.
Proof.
  intros Ht. exists p, sc. split; [reflexivity|]. exists 1%nat. intros [|f] lf Hf _; [lia|].
  cbn [orphan_text]. rewrite (tis_ne t _ Ht). reflexivity.
Qed.
End Steps.
Arguments run_next_pk {s p sc t l}.
Arguments run_quoted {s p sc str e rest}.
Arguments run_attrs_end_pk {s p sc allowed acc t l}.
Arguments run_call_name {s p sc name first r1 segs nx l}.
Arguments run_next_non_comment {s p sc t l}.
Arguments run_orphan_text {s p sc t}.

Definition ParamsRun (m : bool) (params : list node) (ts : list tok) (params' : list node) (rest : list tok) : Prop :=
  Run m (fun p => feeds p rest)
    (fun g k s => call_params_loop inlen lexq unq parse_expr efuel (PE g) (IL g) g k params s) ts params'.

(* {/call}: "{" and "/call" are pushed back *)
Lemma Params_end m params ld ce l : t_typ ld = pit_LeftDelim -> t_typ ce = pit_CallEnd ->
  ParamsRun m params (ld :: ce :: l) params (ld :: ce :: l).
Proof.
  intros Hld Hce s p sc H0 Hm. apply runs_Slf. cbn [call_params_loop].
  run (run_next_non_comment (typ_ne _ _ pit_Comment Hld eq_refl)) as p1 (H1 & _ & Hle1).
  run (run_orphan_text (typ_ne _ _ pit_Text Hld eq_refl)) as ? <-. rewrite (tis_eq ld _ Hld). cbn [negb].
  run (run_next_pk Hle1) as p2 [([<- _] & _) Hf2]. rewrite (tis_eq ce _ Hce), c_backup2_set_ps.
  apply runs_ret. exact (fresh_backup2 _ _ _ Hf2).
Qed.

Lemma Params_value m params ld pm key colon ts v rde l2 params' rest :
  t_typ ld = pit_LeftDelim -> t_typ pm = pit_Param -> t_typ key = pit_Ident -> t_typ colon = pit_Colon ->
  Parses 0 ts v (rde :: l2) -> t_typ rde = pit_RightDelimEnd ->
  ParamsRun m (params ++ [NParamValue (t_pos ld) (t_val key) v]) l2 params' rest ->
  ParamsRun m params (ld :: pm :: key :: colon :: ts) params' rest.
Proof.
  intros Hld Hpm Hkey Hcolon HP Hrde HL s p sc H0 Hm. apply runs_Slf. cbn [call_params_loop].
  run (run_next_non_comment (typ_ne _ _ pit_Comment Hld eq_refl)) as p1 [H1 _].
  run (run_orphan_text (typ_ne _ _ pit_Text Hld eq_refl)) as ? <-. rewrite (tis_eq ld _ Hld). cbn [negb].
  run run_next as p2 [H2 _]. rewrite (tis_ne pm _ (typ_ne _ _ pit_CallEnd Hpm eq_refl)), (tis_eq pm _ Hpm). cbn [negb].
  run (run_expect Hkey) as p3 [H3 _]. run run_next as p4 [H4 _]. rewrite (tis_eq colon _ Hcolon).
  run (run_expr HP) as p5 H5. run (run_expect Hrde) as p6 [H6 _]. apply HL; assumption.
Qed.

Lemma Params_content m params ld pm key rd l1 x u rd2 l2 params' rest :
  t_typ ld = pit_LeftDelim -> t_typ pm = pit_Param -> t_typ key = pit_Ident -> t_typ rd = pit_RightDelim ->
  Body m u_param l1 x u (rd2 :: l2) -> t_typ rd2 = pit_RightDelim ->
  ParamsRun m (params ++ [NParamContent (t_pos ld) (t_val key) x]) l2 params' rest ->
  ParamsRun m params (ld :: pm :: key :: rd :: l1) params' rest.
Proof.
  intros Hld Hpm Hkey Hrd HB Hrd2 HL s p sc H0 Hm. apply runs_Slf. cbn [call_params_loop].
  run (run_next_non_comment (typ_ne _ _ pit_Comment Hld eq_refl)) as p1 [H1 _].
  run (run_orphan_text (typ_ne _ _ pit_Text Hld eq_refl)) as ? <-. rewrite (tis_eq ld _ Hld). cbn [negb].
  run run_next as p2 [H2 _]. rewrite (tis_ne pm _ (typ_ne _ _ pit_CallEnd Hpm eq_refl)), (tis_eq pm _ Hpm). cbn [negb].
  run (run_expect Hkey) as p3 [H3 _]. run run_next as p4 [H4 _].
  rewrite (tis_ne rd _ (typ_ne _ _ pit_Colon Hrd eq_refl)), (tis_eq rd _ Hrd).
  run HB as p5 [H5 _]. run (run_expect Hrd2) as p6 [H6 _]. apply HL; assumption.
Qed.

(* what is written after the name: nothing, data="all", or data="e" *)
Inductive call_data : list tok -> bool -> option node -> Prop :=
| cd_none : call_data [] false None
| cd_all : unq (dq v_all) = Some v_all -> call_data (attr_toks v_data (dq v_all)) true None
| cd_expr str d rest : unq (dq str) = Some str -> str <> v_all -> Parses 0 (lexq str) d rest ->
    call_data (attr_toks v_data (dq str)) false (Some d).

(* parseCall from the item that closes the tag: "/}", or "}", the parameters and {/call} *)
Definition call_close (m : bool) (cl : tok) (l : list tok) (params : list node) (rest : list tok) : Prop :=
  (t_typ cl = pit_RightDelimEnd /\ params = [] /\ rest = l) \/
  (t_typ cl = pit_RightDelim /\ exists ld ce rd, ParamsRun m [] l params (ld :: ce :: rd :: rest) /\
     t_typ ld = pit_LeftDelim /\ t_typ ce = pit_CallEnd /\ t_typ rd = pit_RightDelim).

Lemma call_tail m token name alldata data cl l params rest s p sc :
  call_close m cl l params rest -> feeds p (cl :: l) -> base_ok ns al m s ->
  runs (fun p' => feeds p' rest)
    (fun g _ => cbind (c_next (set_ps s p sc)) (fun tok s4 =>
       if tis tok pit_RightDelimEnd then COk (NCall (t_pos token) name alldata data []) s4
       else if tis tok pit_RightDelim then
         cbind (call_params_loop inlen lexq unq parse_expr efuel (PE g) (IL g) g g [] s4) (fun body s5 =>
         cbind (c_expect inlen pit_LeftDelim x_call s5) (fun _ s6 =>
         cbind (c_expect inlen pit_CallEnd x_call s6) (fun _ s7 =>
         cbind (c_expect inlen pit_RightDelim x_call s7) (fun _ s8 =>
           COk (NCall (t_pos token) name alldata data body) s8))))
       else c_unexp inlen tok x_call s4)) s (NCall (t_pos token) name alldata data params).
Proof.
  intros HC H0 Hm. run run_next as p4 [H4 _].
  destruct HC as [(Hcl & -> & ->)|(Hcl & ld & ce & rd & HPR & Hld & Hce & Hrd)].
  - rewrite (tis_eq cl _ Hcl). apply runs_ret, H4.
  - rewrite (tis_ne cl _ (typ_ne _ _ pit_RightDelimEnd Hcl eq_refl)), (tis_eq cl _ Hcl).
    run (Run_diag HPR) as p5 H5. run (run_expect Hld) as p6 [H6 _]. run (run_expect Hce) as p7 [H7 _].
    run (run_expect Hrd) as p8 [H8 _]. apply runs_ret, H8.
Qed.

Lemma Tag_call m k name first r1 segs atoks alldata data cl l params rest :
  t_typ k = pit_Call -> split_dots [] name = first :: r1 :: segs ->
  call_data atoks alldata data -> t_pos cl = 0 ->
  (forall s, c_ns s = ns -> c_al s = al -> resolve_name s name = name) ->
  call_close m cl l params rest ->
  Tag m (k :: global_toks 0 name ++ atoks ++ cl :: l) (NCall (t_pos k) name alldata data params) rest.
Proof.
  intros Hk Hsp Hcd Hpos Hres HC. tag_start Hk s p sc p1 H1 Hm. apply runs_some. unfold parse_call.
  assert (Hcl : t_typ cl = pit_RightDelim \/ t_typ cl = pit_RightDelimEnd) by (destruct HC as [[E _]|[E _]]; auto).
  assert (Hr : forall p' sc', resolve_name (set_ps s p' sc') name = name) by (intros; apply Hres; apply Hm).
  destruct name as [|c0 nm]; [discriminate Hsp|].
  destruct Hcd as [|Hu|str d rest' Hu Hne HP]; unfold attr_toks in H1; cbn [app] in H1.
  - (* no attribute *)
    assert (Hnx : t_typ cl <> pit_DotIdent) by (destruct Hcl as [E|E]; rewrite E; discriminate).
    run (run_call_name Hnx Hsp) as p2 H2. run (run_attrs_end Hcl) as p3 H3.
    cbv iota. rewrite Hr. cbn [attr assoc_s cbind fst snd]. eapply call_tail; eassumption.
  - (* data="all" *)
    run (run_call_name (nx := tk pit_Ident 0 v_data) ltac:(discriminate) Hsp) as p2 H2.
    eapply runs_bind.
    { eapply (run_attrs_one (tk pit_Ident 0 v_data) (tk pit_Equals 0 v_eq) (tk pit_String 0 (dq v_all))); try reflexivity; [exact Hu | exact H2|].
      intros p3 sc3 [H3 _]. apply (run_attrs_end Hcl H3). }
    intros p4 ? H4. cbv beta zeta.
    cbv iota. rewrite Hr. cbn [t_val tk].
    change (attr k_data [(v_data, v_all)]) with (Some v_all). change (bstr_eqb v_all k_all) with true.
    cbn [cbind fst snd]. eapply call_tail; eassumption.
  - (* data="e" *)
    run (run_call_name (nx := tk pit_Ident 0 v_data) ltac:(discriminate) Hsp) as p2 H2.
    eapply runs_bind.
    { eapply (run_attrs_one (tk pit_Ident 0 v_data) (tk pit_Equals 0 v_eq) (tk pit_String 0 (dq str))); try reflexivity; [exact Hu | exact H2|].
      intros p3 sc3 (H3 & _ & Hle3). apply (run_attrs_end_pk Hcl Hle3 H3). }
    intros p4 ? [H4 He4]. cbv beta zeta.
    cbv iota. rewrite Hr. cbn [t_val tk].
    change (attr k_data [(v_data, str)]) with (Some str). cbv iota beta.
    replace (bstr_eqb str k_all) with false
      by (symmetry; apply not_true_is_false; intros E; apply Hne; apply bstr_eqb_true in E; exact E).
    run (run_quoted (proj2 H4) (eq_trans (f_equal t_pos He4) Hpos) HP) as ? <-. cbn [cbind fst snd]. eapply call_tail; eassumption.
Qed.

Lemma Tag_css_plain m k txt rd l : t_typ k = pit_Css -> t_typ txt = pit_Text -> t_typ rd = pit_RightDelim ->
  last_index_of 44 (t_val txt) = None ->
  Tag m (k :: txt :: rd :: l) (NCss (t_pos k) None (trim_space (t_val txt))) l.
Proof.
  intros Hk Htxt Hrd Hno. tag_start Hk s p sc p1 H1 Hm. apply runs_some. unfold parse_css.
  run (run_expect Htxt) as p2 [H2 _]. run (run_expect Hrd) as p3 [H3 _]. rewrite Hno. apply runs_ret, H3.
Qed.

Lemma Tag_css_expr m k txt rd l i e rest : t_typ k = pit_Css -> t_typ txt = pit_Text -> t_typ rd = pit_RightDelim -> t_pos rd = 0 ->
  last_index_of 44 (t_val txt) = Some i ->
  Parses 0 (lexq (trim_space (take i (t_val txt)))) e rest ->
  Tag m (k :: txt :: rd :: l) (NCss (t_pos k) (Some e) (trim_space (drop (S i) (t_val txt)))) l.
Proof.
  intros Hk Htxt Hrd Hpos Hidx HP. tag_start Hk s p sc p1 H1 Hm. apply runs_some. unfold parse_css, c_expect.
  run run_next as p2 (H2 & _ & Hle2). rewrite (tis_eq txt _ Htxt). cbn [cbind].
  run (run_next_pk Hle2) as p3 [[H3 _] Hf3]. rewrite (tis_eq rd _ Hrd), Hidx. cbn [cbind].
  run (run_quoted (proj2 H3) (eq_trans (f_equal t_pos (fresh_err_tok _ _ Hf3)) Hpos) HP) as ? <-. apply runs_ret, H3.
Qed.
End Call.
