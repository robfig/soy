(* Literal conversion facts used by the round-trip theorems: an int64 printed by
   strconv.FormatInt reads back through strconv.ParseInt (base 10) as itself. *)
From Soy Require Import Model.Bytes Model.Num Model.Utf8 Model.NumLit Model.Quote Model.ExprParser Proofs.MsgIdProofs.
Require Import Lia ZifyBool.
Open Scope N_scope.

Lemma digits_val_app base s1 s2 acc :
  digits_val base (s1 ++ s2) acc =
  match digits_val base s1 acc with Some a => digits_val base s2 a | None => None end.
Proof.
  revert acc; induction s1 as [|c s1 IH]; intros acc; cbn [app digits_val]; [reflexivity|].
  destruct (digit_val c) as [d|]; [|reflexivity]. destruct (d <? base); [apply IH | reflexivity].
Qed.

Lemma digit_val_digit c : is_digit_byte c -> digit_val c = Some (c - 48).
Proof. unfold is_digit_byte, digit_val, in_range. intros [H1 H2]. replace ((48 <=? c) && (c <=? 57)) with true by lia. reflexivity. Qed.

Lemma digits_val_rev l : Forall is_digit_byte l -> digits_val 10 (rev l) 0 = Some (lval l).
Proof.
  induction l as [|c r IH]; intros Hd; [reflexivity|].
  inversion Hd as [|? ? Hc Hr]; subst. cbn [rev lval]. rewrite digits_val_app, (IH Hr).
  cbn [digits_val]. rewrite (digit_val_digit c Hc). unfold is_digit_byte in Hc.
  replace (c - 48 <? 10) with true by lia. f_equal. lia.
Qed.

Lemma digits_val_dec n : digits_val 10 (dec_of_N n) 0 = Some n.
Proof.
  rewrite dec_of_N_lsd, digits_val_rev by apply lsd_digits.
  rewrite lval_lsd by apply lt_pow2_log2. reflexivity.
Qed.

Lemma dec_of_N_head n : exists c r, dec_of_N n = c :: r /\ is_digit_byte c.
Proof.
  pose proof (dec_of_N_digits n) as Hd. pose proof (dec_of_N_nonempty n) as Hne.
  destruct (dec_of_N n) as [|c r]; [congruence|]. inversion Hd; subst. eauto.
Qed.

Lemma parse_int_dec_N n : in_int64 (Z.of_N n) = true -> parse_int 10 (dec_of_N n) = Some (Z.of_N n).
Proof.
  intros Hi. unfold parse_int. destruct (dec_of_N_head n) as (c & r & E & Hc).
  pose proof (digits_val_dec n) as Hv. rewrite E in *. unfold is_digit_byte in Hc.
  replace (c =? 43) with false by lia. replace (c =? 45) with false by lia.
  rewrite Hv, Hi. reflexivity.
Qed.

Lemma parse_int_dec z : in_int64 z = true -> parse_int 10 (dec_of_Z z) = Some z.
Proof.
  intros Hi. destruct z as [|p|p]; cbn [dec_of_Z].
  - reflexivity.
  - apply (parse_int_dec_N (Npos p)). exact Hi.
  - unfold parse_int. change (45 =? 43) with false. change (45 =? 45) with true. cbv iota.
    destruct (dec_of_N_head (Npos p)) as (c & r & E & Hc). pose proof (digits_val_dec (Npos p)) as Hv.
    rewrite E in *. rewrite Hv. change (- Z.of_N (Npos p))%Z with (Zneg p). rewrite Hi. reflexivity.
Qed.

Lemma dec_of_Z_no_0x z : is_prefix s_0x (dec_of_Z z) = false.
Proof.
  pose proof (dec_of_Z_chars z) as Hc.
  destruct (dec_of_Z z) as [|c1 [|c2 r]]; [reflexivity | |].
  - unfold s_0x. cbn [is_prefix]. destruct (48 =? c1); reflexivity.
  - inversion Hc as [|? ? _ Hc2]; subst. inversion Hc2 as [|? ? H2 _]; subst.
    unfold s_0x. cbn [is_prefix]. unfold is_digit_byte in H2.
    replace (120 =? c2) with false by lia. cbn [andb]. apply andb_false_r.
Qed.

(* the index of a data reference: ".N" with N >= 0 *)
Lemma slice_from_app (pre s : bstr) : slice_from (length pre) (pre ++ s) = Some s.
Proof.
  unfold slice_from. rewrite app_length. replace (length pre + length s <? length pre)%nat with false by lia.
  f_equal. induction pre as [|c pre IH]; [reflexivity|]. exact IH.
Qed.

From Soy Require Import Model.AstPrint Generated.Tables Proofs.Utf8Proofs Proofs.CodecProofs.

Lemma escape_table_facts :
  forallb (fun e => match snd e with
                    | [bs; x] => (bs =? 92) && negb (x =? 117) && (x <? 128) && (fst e <? 128) &&
                                 match unescape_of x with Some c => c =? fst e | None => false end
                    | _ => false
                    end) ast_string_escapes = true
  /\ (exists r, assoc 92 ast_string_escapes = Some r).
Proof. split; [reflexivity | eexists; reflexivity]. Qed.

Lemma assoc_In {A} c (l : list (N * A)) r : assoc c l = Some r -> In (c, r) l.
Proof.
  induction l as [|[c' r'] l IH]; cbn [assoc]; [discriminate|].
  destruct (N.eqb_spec c c') as [->|_]; [intros [= ->]; left; reflexivity | intros H; right; apply IH, H].
Qed.

Lemma escape_entry c r : assoc c ast_string_escapes = Some r ->
  exists x, r = [92; x] /\ x <> 117 /\ x < 128 /\ c < 128 /\ unescape_of x = Some c.
Proof.
  intros H. apply assoc_In in H. destruct escape_table_facts as [Hall _].
  rewrite forallb_forall in Hall. specialize (Hall _ H). cbn [fst snd] in Hall.
  destruct r as [|bs [|x [|? ?]]]; try discriminate. exists x.
  destruct (unescape_of x) as [c'|]; [|rewrite andb_false_r in Hall; discriminate].
  repeat (apply andb_true_iff in Hall; destruct Hall as [Hall ?]).
  repeat split; try lia; f_equal; lia.
Qed.

Definition esc1 (c : N) : bstr := match assoc c ast_string_escapes with Some r => r | None => [c] end.

Lemma escape_key_cons c k : escape_key (c :: k) = esc1 c ++ escape_key k.
Proof. reflexivity. Qed.

Lemma escape_key_app a k : escape_key (a ++ k) = escape_key a ++ escape_key k.
Proof. induction a as [|c a IH]; [reflexivity|]. cbn [app]. rewrite !escape_key_cons, IH, app_assoc. reflexivity. Qed.

Lemma escape_key_high a : Forall (fun c => 128 <= c) a -> escape_key a = a.
Proof.
  induction 1 as [|c a Hc _ IH]; [reflexivity|]. rewrite escape_key_cons, IH. unfold esc1.
  destruct (assoc c ast_string_escapes) as [r|] eqn:E; [|reflexivity].
  destruct (escape_entry c r E) as (x & _ & _ & _ & Hlt & _). lia.
Qed.

Lemma escape_key_no_backslash k : mem 92 (escape_key k) = false -> escape_key k = k.
Proof.
  induction k as [|c k IH]; [reflexivity|]. rewrite escape_key_cons. unfold esc1.
  destruct (assoc c ast_string_escapes) as [r|] eqn:E.
  - destruct (escape_entry c r E) as (x & -> & _). cbn. discriminate.
  - cbn [app]. unfold mem. cbn [existsb]. intros H. apply orb_false_iff in H. destruct H as [_ H]. f_equal. apply IH, H.
Qed.

Lemma string_of_runes_cons r l : string_of_runes (r :: l) = encode_rune r ++ string_of_runes l.
Proof. reflexivity. Qed.

Lemma string_of_runes_valid k : utf8_valid k = true -> string_of_runes (runes k) = k.
Proof.
  revert k. apply utf8_valid_ind; [reflexivity|]. intros r X Hr HX IH.
  rewrite runes_rune by exact Hr. rewrite string_of_runes_cons, IH. reflexivity.
Qed.

Lemma decode_ascii c X : c < 128 -> decode_rune (c :: X) = (c, 1%nat).
Proof. intros H. cbn [decode_rune]. replace (c <? 128) with true by lia. reflexivity. Qed.

Lemma encode_high_bytes r : valid_scalar r -> 128 <= r -> Forall (fun c => 128 <= c) (encode_rune r).
Proof.
  intros Hv Hr. destruct (encode_seq r Hv); repeat constructor; lia.
Qed.

Lemma unquote_loop_escaped : forall k, utf8_valid k = true ->
  forall f acc, (length (escape_key k) < f)%nat ->
  unquote_loop f (escape_key k) false acc = Some (rev acc ++ runes k).
Proof.
  apply (utf8_valid_ind (fun k => forall f acc, (length (escape_key k) < f)%nat ->
                                   unquote_loop f (escape_key k) false acc = Some (rev acc ++ runes k))).
  - intros f acc Hf. destruct f as [|f]; [cbn in Hf; lia|]. cbn. rewrite app_nil_r. reflexivity.
  - intros r X Hr HX IH f acc Hf. rewrite escape_key_app in *. rewrite runes_rune by exact Hr.
    destruct (encode_rune_shape r Hr) as (c0 & tl & E & _ & _ & _ & Hlow & Hone & _).
    destruct (N.ltb_spec r 128) as [Hlt|Hge].
    + (* an ASCII rune *)
      destruct (Hone Hlt) as [-> ->]. rewrite E in *. change (escape_key [r]) with (esc1 r ++ []) in *.
      rewrite app_nil_r in *. unfold esc1 in *.
      destruct (assoc r ast_string_escapes) as [rr|] eqn:Er.
      * destruct (escape_entry r rr Er) as (x & -> & Hx117 & Hx128 & _ & Hux).
        cbn [app length] in *. destruct f as [|[|f]]; [lia|lia|].
        cbn [unquote_loop]. rewrite (decode_ascii 92) by lia. cbn [drop negb andb].
        change (92 =? q_backslash) with true. cbn [andb negb].
        cbn [unquote_loop]. rewrite (decode_ascii x) by lia. cbn [drop].
        replace (x =? 117) with false by lia. rewrite Hux.
        rewrite andb_false_r. rewrite IH by lia. cbn [rev]. rewrite <- app_assoc. reflexivity.
      * assert (r <> 92). { intros ->. destruct escape_table_facts as [_ [r0 H0]]. congruence. }
        cbn [app length] in *. destruct f as [|f]; [lia|].
        cbn [unquote_loop]. rewrite (decode_ascii r) by lia. cbn [drop].
        unfold q_backslash. replace (r =? 92) with false by lia. cbn [andb].
        rewrite IH by lia. cbn [rev]. rewrite <- app_assoc. reflexivity.
    + (* a multi-byte rune: its bytes are not in the table *)
      rewrite (escape_key_high (encode_rune r)) in * by (apply encode_high_bytes; assumption).
      assert (r <> 92) by lia.
      destruct f as [|f]; [lia|]. rewrite E in *. cbn [app]. cbn [unquote_loop].
      change (c0 :: tl ++ escape_key X) with ((c0 :: tl) ++ escape_key X). rewrite <- E.
      rewrite (decode_encode r (escape_key X) Hr). rewrite drop_app_len.
      unfold q_backslash. replace (r =? 92) with false by lia. cbn [andb].
      rewrite IH. { cbn [rev]. rewrite <- app_assoc. reflexivity. }
      cbn [app length] in Hf. rewrite app_length in Hf. lia.
Qed.

Lemma last_byte_snoc (l : bstr) x : Quote.last_byte (l ++ [x]) = Some x.
Proof. induction l as [|c l IH]; [reflexivity|]. cbn [app Quote.last_byte]. destruct (l ++ [x]) eqn:E; [destruct l; discriminate | exact IH]. Qed.

(* every valid UTF-8 key written by the printer reads back as itself *)
Theorem key_roundtrip k : utf8_valid k = true -> unquote_string (quote_key k) = Some k.
Proof.
  intros Hv. unfold quote_key, unquote_string. cbn [app].
  destruct (escape_key k ++ [39]) as [|a l] eqn:E; [destruct (escape_key k); discriminate|].
  rewrite <- E. rewrite last_byte_snoc, removelast_last.
  change (39 =? q_quote) with true. cbn [andb].
  destruct (negb (mem q_backslash (escape_key k)) && negb (mem q_quote (escape_key k))) eqn:Efast.
  - apply andb_true_iff in Efast. destruct Efast as [H1 _]. apply negb_true_iff in H1.
    f_equal. apply escape_key_no_backslash, H1.
  - rewrite unquote_loop_escaped by (exact Hv || lia). cbn [rev app]. f_equal. apply string_of_runes_valid, Hv.
Qed.
