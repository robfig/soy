(* Float round trip, part 1: NumLit.round_ratio returns x for every fraction n/d inside the rounding
   interval of the float64 x = a * 2^e (a odd, below 2^53): between the midpoints to the two neighbours,
   end points included when the 53-bit mantissa is even.  All statements are about integers: a rational
   v = n/d is compared with K * 2^t by cross-multiplication ([rt_cmp]). *)
From Soy Require Import Model.Bytes Model.Num Model.NumLit Proofs.NumLitProofs.
From Coq Require Import ZifyBool Lia.
Open Scope Z_scope.

(* b^e as a fraction of integers, for an exponent of either sign: rt_up b e / rt_up b (- e) *)
Definition rt_up (b e : Z) : Z := b ^ Z.max 0 e.

Lemma rt_up_pos b e : 0 < b -> 0 < rt_up b e.
Proof. intros. apply Z.pow_pos_nonneg; lia. Qed.
Lemma rt_up_nonneg b e : 0 <= e -> rt_up b e = b ^ e.
Proof. intros. unfold rt_up. f_equal. lia. Qed.
Lemma rt_up_nonpos b e : e <= 0 -> rt_up b e = 1.
Proof. intros. unfold rt_up. replace (Z.max 0 e) with 0 by lia. reflexivity. Qed.
(* b^x b^y = b^(x+y), cross-multiplied *)
Lemma rt_up_add b x y : rt_up b x * rt_up b y * rt_up b (- (x + y)) = rt_up b (- x) * rt_up b (- y) * rt_up b (x + y).
Proof. unfold rt_up. rewrite <- !Z.pow_add_r by lia. f_equal. lia. Qed.

Definition rt_P2 (t : Z) : Z := rt_up 2 t.
Definition rt_N2 (t : Z) : Z := rt_up 2 (- t).

(* n/d  ?=  K * 2^t *)
Definition rt_cmp (n d K t : Z) : comparison := Z.compare (n * rt_N2 t) (K * rt_P2 t * d).

Lemma rt_P2_pos t : 0 < rt_P2 t.
Proof. apply rt_up_pos. lia. Qed.
Lemma rt_N2_pos t : 0 < rt_N2 t.
Proof. apply rt_up_pos. lia. Qed.

Lemma rt_P2N2 t j : 0 <= j -> rt_P2 t * rt_N2 (t - j) = rt_P2 (t - j) * 2 ^ j * rt_N2 t.
Proof.
  intros Hj. unfold rt_P2, rt_N2, rt_up.
  rewrite <- !Z.pow_add_r by lia. f_equal. lia.
Qed.

Lemma rt_scale_num n e : scale_num n e = n * rt_N2 e.
Proof. unfold scale_num, rt_N2. destruct (Z.leb_spec 0 e); [rewrite rt_up_nonpos|rewrite rt_up_nonneg]; lia. Qed.
Lemma rt_scale_den d e : scale_den d e = d * rt_P2 e.
Proof. unfold scale_den, rt_P2. destruct (Z.leb_spec 0 e); [rewrite rt_up_nonneg|rewrite rt_up_nonpos]; lia. Qed.

Lemma rt_compare_scale a c p : 0 < p -> Z.compare (a * p) (c * p) = Z.compare a c.
Proof. intros Hp. rewrite !(Z.mul_comm _ p). symmetry. apply Zmult_compare_compat_l. lia. Qed.

(* fractions a/b and a'/b' with a common positive multiple compare alike *)
Lemma rt_compare_cross a b a' b' s s' : 0 < s -> 0 < s' -> a * s = a' * s' -> b * s = b' * s' -> Z.compare a b = Z.compare a' b'.
Proof. intros Hs Hs' Ea Eb. rewrite <- (rt_compare_scale a b s Hs), <- (rt_compare_scale a' b' s' Hs'), Ea, Eb. reflexivity. Qed.

(* v ?= K 2^t   is   v ?= (K 2^j) 2^(t-j) *)
Lemma rt_cmp_shift n d K t j : 0 <= j -> 0 < d -> rt_cmp n d K t = rt_cmp n d (K * 2 ^ j) (t - j).
Proof.
  intros Hj Hd. apply (rt_compare_cross _ _ _ _ (rt_N2 (t - j)) (rt_N2 t)); [apply rt_N2_pos..|ring|].
  replace (K * rt_P2 t * d * rt_N2 (t - j)) with (K * d * (rt_P2 t * rt_N2 (t - j))) by ring. rewrite (rt_P2N2 t j Hj). ring.
Qed.

(* 2^j v ?= K 2^t   is   v ?= K 2^(t-j) *)
Lemma rt_cmp_mul n d K t j : 0 <= j -> 0 < d -> rt_cmp (2 ^ j * n) d K t = rt_cmp n d K (t - j).
Proof.
  intros Hj Hd. apply (rt_compare_cross _ _ _ _ (rt_N2 (t - j)) (2 ^ j * rt_N2 t)); [apply rt_N2_pos| |ring|].
  - apply Z.mul_pos_pos; [apply Z.pow_pos_nonneg; lia|apply rt_N2_pos].
  - replace (K * rt_P2 t * d * rt_N2 (t - j)) with (K * d * (rt_P2 t * rt_N2 (t - j))) by ring. rewrite (rt_P2N2 t j Hj). ring.
Qed.

Lemma rt_cmp_frac_eq n d n' d' K t : 0 < d -> 0 < d' -> n * d' = n' * d -> rt_cmp n d K t = rt_cmp n' d' K t.
Proof.
  intros Hd Hd' E. apply (rt_compare_cross _ _ _ _ d' d Hd' Hd); [|ring].
  replace (n * rt_N2 t * d') with (n * d' * rt_N2 t) by ring. rewrite E. ring.
Qed.

(* the order of the K: v <= K < K' gives v < K', and v >= K > K' gives v > K' *)
Lemma rt_cmp_lt_mono n d K K' t : 0 < d -> K < K' -> rt_cmp n d K t <> Gt -> rt_cmp n d K' t = Lt.
Proof.
  unfold rt_cmp. intros Hd HK H. rewrite Z.compare_gt_iff in H. rewrite Z.compare_lt_iff. pose proof (rt_P2_pos t).
  assert (K * rt_P2 t * d < K' * rt_P2 t * d) by (apply Z.mul_lt_mono_pos_r; [lia|apply Z.mul_lt_mono_pos_r; lia]). lia.
Qed.
Lemma rt_cmp_gt_mono n d K K' t : 0 < d -> K' < K -> rt_cmp n d K t <> Lt -> rt_cmp n d K' t = Gt.
Proof.
  unfold rt_cmp. intros Hd HK H. rewrite Z.compare_lt_iff in H. rewrite Z.compare_gt_iff. pose proof (rt_P2_pos t).
  assert (K' * rt_P2 t * d < K * rt_P2 t * d) by (apply Z.mul_lt_mono_pos_r; [lia|apply Z.mul_lt_mono_pos_r; lia]). lia.
Qed.

Lemma rt_floor_ge n d e K : 0 < d -> (K <=? floor_div_pow2 n d e) = negb (match rt_cmp n d K e with Lt => true | _ => false end).
Proof.
  intros Hd. unfold floor_div_pow2, rt_cmp. rewrite rt_scale_num, rt_scale_den.
  pose proof (rt_P2_pos e) as HP. set (nn := n * rt_N2 e). set (dd := d * rt_P2 e).
  assert (Hdd : 0 < dd) by (unfold dd; apply Z.mul_pos_pos; lia).
  replace (K * rt_P2 e * d) with (K * dd) by (unfold dd; ring).
  destruct (Z.compare_spec nn (K * dd)) as [H|H|H]; cbn [negb].
  - subst nn. rewrite H, Z.div_mul by lia. lia.
  - assert (nn / dd < K) by (apply Z.div_lt_upper_bound; lia). lia.
  - assert (K <= nn / dd) by (apply Z.div_le_lower_bound; lia). lia.
Qed.

(* the integer nearest to nn/dd, ties to even *)
Lemma rt_round_near nn dd K :
  0 < dd -> (2 * K - 1) * dd <= 2 * nn <= (2 * K + 1) * dd ->
  (Z.even K = true \/ ((2 * K - 1) * dd < 2 * nn < (2 * K + 1) * dd)) ->
  (let q := nn / dd in let r := nn mod dd in
   if 2 * r <? dd then q else if dd <? 2 * r then q + 1 else if Z.even q then q else q + 1) = K.
Proof.
  intros Hdd Hb Ht. cbv zeta.
  pose proof (Z.div_mod nn dd ltac:(lia)) as Hdm. pose proof (Z.mod_pos_bound nn dd Hdd) as Hr.
  set (q := nn / dd) in *. set (r := nn mod dd) in *.
  assert (Hq : q = K - 1 \/ q = K) by nia.
  destruct Hq as [Hq|Hq].
  - (* q = K-1: r >= dd/2 *)
    assert (dd <= 2 * r) by nia.
    destruct (Z.ltb_spec (2 * r) dd); [lia|].
    destruct (Z.ltb_spec dd (2 * r)); [lia|].
    assert (E : 2 * r = dd) by lia.
    destruct Ht as [Ht|Ht]; [|nia].
    replace (Z.even q) with false; [lia|]. rewrite Hq. rewrite Z.even_sub. rewrite Ht. reflexivity.
  - assert (2 * r <= dd) by nia.
    destruct (Z.ltb_spec (2 * r) dd); [lia|].
    destruct (Z.ltb_spec dd (2 * r)); [lia|].
    destruct Ht as [Ht|Ht]; [|nia]. rewrite Hq, Ht. reflexivity.
Qed.

Definition rt_above (incl : bool) (c : comparison) : bool := match c with Gt => true | Eq => incl | Lt => false end.
Definition rt_below (incl : bool) (c : comparison) : bool := match c with Lt => true | Eq => incl | Gt => false end.

Lemma rt_above_ge incl c : rt_above incl c = true -> c <> Lt.
Proof. destruct c; discriminate. Qed.
Lemma rt_below_le incl c : rt_below incl c = true -> c <> Gt.
Proof. destruct c; discriminate. Qed.

Lemma rt_above_mono incl n d K K' t :
  0 < d -> K' <= K -> rt_above incl (rt_cmp n d K t) = true -> rt_above incl (rt_cmp n d K' t) = true.
Proof.
  intros Hd HK H. destruct (Z.eq_dec K' K) as [->|N]; [exact H|].
  rewrite (rt_cmp_gt_mono n d K K' t Hd ltac:(lia) (rt_above_ge _ _ H)). reflexivity.
Qed.

Lemma rt_round_div n d e K :
  0 < d -> 0 <= n ->
  rt_above (Z.even K) (rt_cmp n d (2 * K - 1) (e - 1)) = true ->
  rt_below (Z.even K) (rt_cmp n d (2 * K + 1) (e - 1)) = true ->
  round_div_pow2 n d e = K.
Proof.
  intros Hd Hn Ha Hb. unfold round_div_pow2.
  rewrite <- (rt_cmp_mul n d _ e 1) in Ha by lia. rewrite <- (rt_cmp_mul n d _ e 1) in Hb by lia. change (2 ^ 1) with 2 in Ha, Hb.
  unfold rt_cmp in Ha, Hb. rewrite rt_scale_num, rt_scale_den.
  pose proof (rt_P2_pos e) as HP. set (nn := n * rt_N2 e) in *. set (dd := d * rt_P2 e) in *.
  assert (Hdd : 0 < dd) by (unfold dd; apply Z.mul_pos_pos; lia).
  replace (2 * n * rt_N2 e) with (2 * nn) in Ha, Hb by (unfold nn; ring).
  replace ((2 * K - 1) * rt_P2 e * d) with ((2 * K - 1) * dd) in Ha by (unfold dd; ring).
  replace ((2 * K + 1) * rt_P2 e * d) with ((2 * K + 1) * dd) in Hb by (unfold dd; ring).
  apply rt_round_near; [exact Hdd| |].
  - destruct (Z.compare_spec (2 * nn) ((2 * K - 1) * dd)); destruct (Z.compare_spec (2 * nn) ((2 * K + 1) * dd)); cbn in Ha, Hb; try discriminate; lia.
  - destruct (Z.even K); [left; reflexivity|right].
    destruct (Z.compare_spec (2 * nn) ((2 * K - 1) * dd)); destruct (Z.compare_spec (2 * nn) ((2 * K + 1) * dd)); cbn in Ha, Hb; try discriminate; lia.
Qed.

Lemma rt_pow_le_inv a c : 0 <= c -> 2 ^ a <= 2 ^ c -> a <= c.
Proof. intros Hc H. apply (Z.pow_le_mono_r_iff 2); [lia|exact Hc|exact H]. Qed.

(* 2^52 2^E <= n/d < 2^53 2^E  fixes the exponent *)
Lemma rt_exponent n d E :
  0 < n -> 0 < d -> -1073 <= E ->
  rt_cmp n d (2 ^ 52) E <> Lt -> rt_cmp n d (2 ^ 53) E = Lt -> ratio_exp n d = E.
Proof.
  intros Hn Hd HE Hlo Hhi. unfold ratio_exp.
  pose proof (Z.log2_spec n Hn) as [Ln1 Ln2]. pose proof (Z.log2_spec d Hd) as [Ld1 Ld2].
  pose proof (Z.log2_nonneg n) as Ln0. pose proof (Z.log2_nonneg d) as Ld0.
  set (ln := Z.log2 n) in *. set (ld := Z.log2 d) in *.
  assert (B : E - 1 <= ln - ld - 53 <= E).
  { unfold rt_cmp in Hlo, Hhi. rewrite Z.compare_lt_iff in Hlo, Hhi.
    pose proof (rt_P2_pos E) as HP. pose proof (rt_N2_pos E) as HN. unfold rt_P2, rt_N2, rt_up in *.
    set (A := Z.max 0 E) in *. set (C := Z.max 0 (- E)) in *.
    assert (HAC : A - C = E) by (unfold A, C; lia). assert (HA : 0 <= A) by (unfold A; lia). assert (HC : 0 <= C) by (unfold C; lia).
    split.
    - (* 2^52 2^A 2^ld <= 2^52 2^A d <= n 2^C < 2^(ln+1) 2^C *)
      assert (H1 : 2 ^ 52 * 2 ^ A * 2 ^ ld <= 2 ^ 52 * 2 ^ A * d) by (apply Z.mul_le_mono_nonneg_l; lia).
      assert (H2 : n * 2 ^ C < 2 ^ (ln + 1) * 2 ^ C) by (apply Z.mul_lt_mono_pos_r; lia).
      assert (H3 : 2 ^ (52 + A + ld) < 2 ^ (ln + 1 + C)).
      { rewrite !Z.pow_add_r by lia. rewrite Z.pow_add_r in H2 by lia. lia. }
      apply Z.pow_lt_mono_r_iff in H3; lia.
    - assert (H1 : 2 ^ 53 * 2 ^ A * d < 2 ^ 53 * 2 ^ A * 2 ^ (ld + 1)) by (apply Z.mul_lt_mono_pos_l; lia).
      assert (H2 : 2 ^ ln * 2 ^ C <= n * 2 ^ C) by (apply Z.mul_le_mono_nonneg_r; lia).
      assert (H3 : 2 ^ (ln + C) < 2 ^ (53 + A + (ld + 1))).
      { rewrite !Z.pow_add_r by lia. rewrite Z.pow_add_r in H1 by lia. lia. }
      apply Z.pow_lt_mono_r_iff in H3; lia. }
  replace (Z.max (ln - ld - 53) (-1074)) with (ln - ld - 53) by lia.
  change two53 with (2 ^ 53). rewrite rt_floor_ge by exact Hd.
  destruct (Z.eq_dec (ln - ld - 53) E) as [Ee|Ee].
  - rewrite Ee, Hhi. cbn. reflexivity.
  - assert (Ee' : ln - ld - 53 = E - 1) by lia. rewrite Ee'.
    rewrite (rt_cmp_shift n d (2 ^ 52) E 1) in Hlo by lia. change (2 ^ 52 * 2 ^ 1) with (2 ^ 53) in Hlo.
    destruct (rt_cmp n d (2 ^ 53) (E - 1)); try congruence; cbn; lia.
Qed.

Lemma rt_floor_le_round n d e : floor_div_pow2 n d e <= round_div_pow2 n d e.
Proof.
  unfold floor_div_pow2, round_div_pow2. cbv zeta.
  destruct (_ <? _); [lia|]. destruct (_ <? _); [lia|]. destruct (Z.even _); lia.
Qed.

(* a quotient of 53 bits at an exponent of 972 or more reaches 2^1024 *)
Lemma rt_round_overflow neg n d E :
  0 < n -> 0 < d -> 972 <= E -> rt_cmp n d (2 ^ 52) E <> Lt -> rt_cmp n d (2 ^ 53) E = Lt -> round_ratio neg n d = FRRange.
Proof.
  intros Hn Hd HE Hlo Hhi. pose proof (rt_exponent n d E Hn Hd ltac:(lia) Hlo Hhi) as Hex.
  unfold round_ratio. cbv zeta. fold (ratio_exp n d). rewrite Hex.
  assert (HK : 2 ^ 52 <= round_div_pow2 n d E).
  { apply Z.le_trans with (2 := rt_floor_le_round n d E). apply Z.leb_le. rewrite rt_floor_ge by exact Hd.
    destruct (rt_cmp n d (2 ^ 52) E); [reflexivity|congruence|reflexivity]. }
  destruct (round_div_pow2 n d E) as [|p|p]; [lia| |lia].
  assert (52 <= Z.log2 (Zpos p)) by (apply Z.log2_le_pow2; lia).
  replace (1024 <=? Z.log2 (Zpos p) + E) with true by lia. reflexivity.
Qed.

Lemma rt_round_zero neg n d : round_div_pow2 n d (ratio_exp n d) = 0 -> round_ratio neg n d = FRVal (FZero neg).
Proof. intros H. unfold round_ratio. cbv zeta. fold (ratio_exp n d). rewrite H. reflexivity. Qed.

(* below 2^-1021 the exponent is the least one *)
Lemma rt_ratio_exp_sub n d : 0 < n -> 0 < d -> n * 2 ^ 1021 < d -> ratio_exp n d = -1074.
Proof.
  intros Hn Hd H. unfold ratio_exp.
  assert (L : Z.log2 n + 1021 <= Z.log2 d).
  { apply Z.log2_le_pow2; [exact Hd|]. pose proof (Z.log2_nonneg n). rewrite Z.pow_add_r by lia.
    pose proof (proj1 (Z.log2_spec n Hn)). set (A := 2 ^ 1021) in *. assert (0 < A) by (apply Z.pow_pos_nonneg; lia).
    assert (2 ^ Z.log2 n * A <= n * A) by (apply Z.mul_le_mono_nonneg_r; lia). lia. }
  replace (Z.max (Z.log2 n - Z.log2 d - 53) (-1074)) with (-1074) by lia.
  change two53 with (2 ^ 53). rewrite rt_floor_ge by exact Hd.
  replace (rt_cmp n d (2 ^ 53) (-1074)) with Lt; [reflexivity|]. symmetry. apply Z.compare_lt_iff.
  unfold rt_N2, rt_P2. rewrite rt_up_nonneg, rt_up_nonpos by lia. change (- -1074) with (1021 + 53). rewrite Z.pow_add_r by lia.
  set (A := 2 ^ 1021) in *. set (B := 2 ^ 53). assert (0 < B) by (apply Z.pow_pos_nonneg; lia).
  assert (n * A * B < d * B) by (apply Z.mul_lt_mono_pos_r; lia). lia.
Qed.

(* the same two with every comparison at one exponent t, j binary places below the result's *)
Lemma rt_exponent_at n d t j :
  0 < n -> 0 < d -> 0 <= j -> -1073 <= t + j ->
  rt_cmp n d (2 ^ 52 * 2 ^ j) t <> Lt -> rt_cmp n d (2 ^ 53 * 2 ^ j) t = Lt -> ratio_exp n d = t + j.
Proof.
  intros Hn Hd Hj Ht Hlo Hhi. apply (rt_exponent n d (t + j) Hn Hd Ht);
    rewrite (rt_cmp_shift n d _ (t + j) j Hj Hd); replace (t + j - j) with t by ring; assumption.
Qed.

Lemma rt_round_div_at n d t j K :
  0 < d -> 0 <= n -> 1 <= j ->
  rt_above (Z.even K) (rt_cmp n d ((2 * K - 1) * 2 ^ (j - 1)) t) = true ->
  rt_below (Z.even K) (rt_cmp n d ((2 * K + 1) * 2 ^ (j - 1)) t) = true ->
  round_div_pow2 n d (t + j) = K.
Proof.
  intros Hd Hn Hj Ha Hb. apply (rt_round_div n d (t + j) K Hd Hn);
    rewrite (rt_cmp_shift n d _ (t + j - 1) (j - 1) ltac:(lia) Hd); replace (t + j - 1 - (j - 1)) with t by ring; assumption.
Qed.

Section Interval.
Variable q : positive.
Variable e : Z.
Variables n d : Z.
Hypothesis Hodd : podd q.
Hypothesis Hq53 : Zpos q < two53.
Hypothesis He : -1000 < e < 900.
Hypothesis Hn : 0 < n.
Hypothesis Hd : 0 < d.

Let shift := 53 - (Z.log2 (Zpos q) + 1).
Let M := Zpos q * 2 ^ shift.
Let E := e - shift.

Lemma rt_shift_range : 0 <= shift <= 52.
Proof.
  unfold shift. pose proof (Z.log2_nonneg (Zpos q)).
  assert (Z.log2 (Zpos q) < 53) by (apply Z.log2_lt_pow2; [lia|exact Hq53]). lia.
Qed.

Lemma rt_M_range : 2 ^ 52 <= M < 2 ^ 53.
Proof.
  pose proof rt_shift_range as Hs. unfold M.
  pose proof (Z.log2_spec (Zpos q) ltac:(lia)) as [L1 L2]. pose proof (Z.log2_nonneg (Zpos q)) as L0.
  set (l := Z.log2 (Zpos q)) in *. assert (Es : shift = 52 - l) by (unfold shift; lia).
  assert (P : 0 < 2 ^ shift) by (apply Z.pow_pos_nonneg; lia).
  split.
  - replace 52 with (l + shift) by lia. rewrite Z.pow_add_r by lia. apply Z.mul_le_mono_nonneg_r; lia.
  - replace 53 with ((l + 1) + shift) by lia. rewrite Z.pow_add_r by lia. apply Z.mul_lt_mono_pos_r; lia.
Qed.

Lemma rt_M_even : Z.even M = (1 <=? shift).
Proof.
  pose proof rt_shift_range as Hs. unfold M. destruct (Z.leb_spec 1 shift) as [H|H].
  - replace shift with (1 + (shift - 1)) by lia. rewrite Z.pow_add_r by lia. change (2 ^ 1) with 2.
    replace (Zpos q * (2 * 2 ^ (shift - 1))) with (2 * (Zpos q * 2 ^ (shift - 1))) by ring. apply Z.even_mul.
  - replace shift with 0 by lia. rewrite Z.pow_0_r, Z.mul_1_r. destruct q; try contradiction; reflexivity.
Qed.

Lemma rt_q_one : M = 2 ^ 52 -> q = xH /\ shift = 52.
Proof.
  intros HM. pose proof rt_shift_range as Hs. unfold M in HM.
  destruct (Z.eq_dec shift 52) as [E52|N52].
  - rewrite E52 in HM. split; [|exact E52]. assert (Zpos q = 1) by lia. congruence.
  - exfalso. (* q 2^shift = 2^52 with q odd and shift < 52: q = 2^(52-shift) is even *)
    assert (P : 0 < 2 ^ shift) by (apply Z.pow_pos_nonneg; lia).
    assert (Hq : Zpos q = 2 ^ (52 - shift)).
    { apply (Z.mul_reg_r _ _ (2 ^ shift)); [lia|]. rewrite <- Z.pow_add_r by lia. replace (52 - shift + shift) with 52 by lia. exact HM. }
    assert (Ev : Z.even (Zpos q) = true).
    { rewrite Hq. replace (52 - shift) with (1 + (51 - shift)) by lia. rewrite Z.pow_add_r by lia. change (2 ^ 1) with 2. apply Z.even_mul. }
    destruct q; try contradiction; discriminate.
Qed.

(* the interval in the units of Num.shortest_decimal: 4M = X, exponent E - 2 *)
Definition rt_LO : Z := if Zpos q =? 1 then 4 * M - 1 else 4 * M - 2.
Definition rt_HI : Z := 4 * M + 2.
Definition rt_incl : bool := 1 <=? shift.

Hypothesis Hlo : rt_above rt_incl (rt_cmp n d rt_LO (E - 2)) = true.
Hypothesis Hhi : rt_below rt_incl (rt_cmp n d rt_HI (E - 2)) = true.

Theorem rt_round_interval neg : round_ratio neg n d = FRVal (FFin (if neg then Zneg q else Zpos q) e).
Proof.
  pose proof rt_shift_range as Hs. pose proof rt_M_range as HM. pose proof rt_M_even as HMe. fold rt_incl in HMe.
  assert (HLO : 4 * M - 2 <= rt_LO) by (unfold rt_LO; destruct (Zpos q =? 1); lia).
  assert (Ee : e = E - 2 + 2 + shift) by (unfold E; ring).
  set (t := E - 2) in *. assert (Ht : -1054 <= t) by (unfold t, E; lia).
  pose proof (Z.lt_le_incl _ _ Hn) as Hn0.
  assert (Hlt : rt_cmp n d (2 ^ 53 * 2 ^ 2) t = Lt).
  { apply (rt_cmp_lt_mono n d rt_HI); [exact Hd| |exact (rt_below_le _ _ Hhi)]. unfold rt_HI. change (2 ^ 53 * 2 ^ 2) with (4 * 2 ^ 53). lia. }
  assert (D : rt_cmp n d (2 ^ 52 * 2 ^ 2) t <> Lt \/ rt_cmp n d (2 ^ 52 * 2 ^ 2) t = Lt) by (destruct (rt_cmp n d (2 ^ 52 * 2 ^ 2) t); auto; left; discriminate).
  destruct D as [Hge|C52].
  - (* 2^52 2^E <= v: x's own binade, the quotient rounds to M *)
    pose proof (rt_exponent_at n d t 2 Hn Hd Z.le_0_2 ltac:(lia) Hge Hlt) as Hex.
    pose proof (round_ratio_pow2 neg n d q shift Hodd (proj1 Hs)) as R. rewrite Hex, <- Ee in R.
    apply R; [|unfold t, E, shift; lia]. fold M.
    apply (rt_round_div_at n d t 2 M Hd Hn0 ltac:(lia)); change (2 - 1) with 1; rewrite HMe.
    + apply (rt_above_mono _ n d rt_LO); [exact Hd|change (2 ^ 1) with 2; lia|exact Hlo].
    + replace ((2 * M + 1) * 2 ^ 1) with rt_HI by (unfold rt_HI; change (2 ^ 1) with 2; ring). exact Hhi.
  - (* v < 2^52 2^E, so M = 2^52 and v is in the binade below, where the quotient rounds up to 2^53 *)
    assert (EM : M = 2 ^ 52).
    { destruct (Z.eq_dec M (2 ^ 52)) as [EM|NM]; [exact EM|]. exfalso.
      rewrite (rt_cmp_gt_mono n d rt_LO (2 ^ 52 * 2 ^ 2) t Hd) in C52; [discriminate| |exact (rt_above_ge _ _ Hlo)].
      change (2 ^ 52 * 2 ^ 2) with (4 * 2 ^ 52). lia. }
    destruct (rt_q_one EM) as [Eq1 Es52].
    assert (ELO : rt_LO = (2 * 2 ^ 53 - 1) * 2 ^ 0) by (unfold rt_LO; rewrite Eq1, EM; reflexivity). rewrite ELO in Hlo.
    assert (Ei : rt_incl = true) by (unfold rt_incl; lia). rewrite Ei in Hlo.
    assert (Hge : rt_cmp n d (2 ^ 52 * 2 ^ 1) t <> Lt).
    { apply (rt_above_ge true), (rt_above_mono _ n d _ _ t Hd) with (2 := Hlo). cbn. lia. }
    pose proof (rt_exponent_at n d t 1 Hn Hd Z.le_0_1 ltac:(lia) Hge C52) as Hex.
    pose proof (round_ratio_pow2 neg n d q 53 Hodd ltac:(lia)) as R. rewrite Hex in R.
    replace (t + 1 + 53) with e in R by (rewrite Ee, Es52; ring). apply R; [|rewrite Eq1; change (Z.log2 1) with 0; clear - He Ee Es52; lia].
    rewrite Eq1. change (1 * 2 ^ 53) with (2 ^ 53).
    apply (rt_round_div_at n d t 1 (2 ^ 53) Hd Hn0 (Z.le_refl 1)); change (1 - 1) with 0; change (Z.even (2 ^ 53)) with true; [exact Hlo|].
    rewrite (rt_cmp_lt_mono n d (2 ^ 52 * 2 ^ 2) _ t Hd); [reflexivity|cbn; lia|congruence].
Qed.
End Interval.
