(* C04, the statement stages put together: one simulation step over the three sides *)
From Soy Require Import Model.Bytes Model.Num Model.Values Model.Outcome Model.Ast Model.JsGen Model.MiniJS
  Model.Escape Model.Directives Model.Print Generated.Tables Model.Interp
  Proofs.EscapeProofs Proofs.MiniJSProofs Proofs.MiniJSPrint Proofs.MiniJSStmt Model.MsgId Proofs.MsgIdProofs Proofs.MiniJSCtl Proofs.MiniJSGo Proofs.MiniJSGen.
Open Scope N_scope.

(* gen_correct_partial_stmt: the three sides together, as one simulation step.

   [sim] relates a state of the Go renderer's model, a JavaScript environment and a state of the generator:
   the writer does not fail, the scope stack is a frame not entered by a call over frames whose data="all" view is
   the template's data (dinv), every Soy variable is where the generator's scope says
   it is (env_rel), opt_data holds the template's data (datarel), the generated names in scope and the buffer variable carry counters up to the generator's
   counter and the buffer variable is none of them (ginv), the buffer variable holds the text written so far,
   and the generator's autoescape mode is the renderer's.

   For a statement s of the subset (every cstmt of Model/MiniJS.v; nested blocks) with
   [sout s = Some (text, env')]:
   (Go)  the walker of Model/Interp.v writes exactly text; a variable looked up afterwards has the value env' gives;
   (JS)  executing the MiniJS statement [sgen ..] appends exactly text to the buffer variable;
   (Gen) walking the node in Model/JsGen.v emits exactly the chunks of that MiniJS statement;
   and the three resulting states are related by [sim] again (with the longer buffer text), so the theorem applies
   to the next statement. *)
(* what a statement with calls is relative to: the data of the template being rendered (data="all" passes it on), the
   text a callee writes for given data, the JavaScript function of a callee, and a fuel that suffices for every call *)
Record callctx := {
  cc_denv : bstr -> option value;
  cc_callee : bstr -> (bstr -> option value) -> option bstr;
  cc_jfn : bstr -> jval -> jval -> outcome bstr;
  cc_fuel : nat;
}.
(* (Go) the template a call names exists, and entering it (state.walk of its node in a scope that holds the callee's
   data, autoescape mode of its namespace) writes the callee's text and gives the caller's scope and mode back *)
Definition go_callee_ok (cf : cfg) (callee : bstr -> (bstr -> option value) -> option bstr) (cfuel : nat) : Prop :=
  forall name cenv text, callee name cenv = Some text ->
  exists t, find_template (r_templates (c_reg cf)) name = Some t /\
    forall f st cd, (cfuel <= f)%nat -> wok st -> cd <> [] -> (forall k, sc_lookup cd k = cenv k) -> envok cenv ->
      exists st' ws rv, call_enter (walk cf f) t cd st = (Ok rv, st') /\ wrote st st' ws /\ concat_b ws = text
                        /\ mode st' = mode st /\ ctx st' = ctx st.
(* (JS) the function of a callee returns the callee's text for every data object that holds the callee's data *)
Definition js_callee_ok (ij : option value) (callee : bstr -> (bstr -> option value) -> option bstr)
                        (jfn : bstr -> jval -> jval -> outcome bstr) : Prop :=
  forall name cenv text jd ijv, callee name cenv = Some text -> datarel cenv jd ->
    (forall v, ij = Some v -> ijv = to_js v) -> jfn name jd ijv = Ok text.
Definition callctx_ok (cf : cfg) (o : jopts) (cc : callctx) : Prop :=
  cn_ok o /\ o_msgs o = None /\ envok (cc_denv cc) /\ go_callee_ok cf (cc_callee cc) (cc_fuel cc) /\ js_callee_ok (c_ij cf) (cc_callee cc) (cc_jfn cc).

Definition sim (cf : cfg) (cc : callctx) (st : mstate) (je : jenv) (jst : jstate) (old : bstr) : Prop :=
  wok st /\ dinv (cc_denv cc) (ctx st)
  /\ env_rel (j_scope jst) (c_ij cf) (sc_lookup (ctx st)) je
  /\ datarel (cc_denv cc) (je_data je)
  /\ ginv (j_scope jst) (j_n jst) (j_buf jst)
  /\ assoc_s (j_buf jst) (je_vars je) = Some (JStr old)
  /\ j_auto jst = mode st.

Lemma env_rel_ext sc ij env1 env2 je : (forall k, env1 k = env2 k) -> env_rel sc ij env1 je -> env_rel sc ij env2 je.
Proof.
  intros H [Ev Ei Ec Eci El]. constructor; auto.
  - intros key Hid Hk. specialize (Ev key Hid Hk). unfold env_val in *. rewrite <- H. exact Ev.
  - intro key. specialize (Ec key). unfold env_val in *. rewrite <- H. exact Ec.
  - intros x i. rewrite <- !H. apply El.
Qed.

Definition sim_step (cf : cfg) (o : jopts) (cc : callctx) (lv : list bstr) (st : mstate) (je : jenv) (jst : jstate) (s : cstmt) (fuel : nat)
                    (text : bstr) (env' : bstr -> option value) (old : bstr) : Prop :=
  exists st' ws rv je' jst',
    let j := fst (sgen (mode st) (j_buf jst) (j_scope jst) (j_n jst) s) in
    (* Go *)  walk cf fuel (snode s) st = (Ok rv, st') /\ wrote st st' ws /\ concat_b ws = text
              /\ mode st' = mode st /\ tl (ctx st') = tl (ctx st) /\ (forall k, sc_lookup (ctx st') k = env' k)
    (* JS *)  /\ js_exec (cc_jfn cc) je j = Ok je' /\ je_data je' = je_data je
    (* Gen *) /\ jwalk o fuel (snode s) jst = Ok (tt, jst') /\ j_out jst' = rev (sprint (j_indent jst) j) ++ j_out jst
              /\ j_indent jst' = j_indent jst /\ j_buf jst' = j_buf jst /\ tl (j_scope jst') = tl (j_scope jst)
    /\ sim cf cc st' je' jst' (old ++ text) /\ lvok lv (j_scope jst').

(* the step from what the Go side and the generator say of the statement at this fuel (the JavaScript side needs none) *)
Lemma sim_step_sides cf o cc lv st je jst s fuel text env' old :
  callctx_ok cf o cc -> sim cf cc st je jst old -> swf lv s = true -> lvok lv (j_scope jst) ->
  sout (c_ij cf) (mode st) go_print_text (cc_denv cc) (cc_callee cc) (sc_lookup (ctx st)) s = Some (text, env') ->
  sres (cc_denv cc) (walk cf fuel (snode s)) st text env' ->
  (forall j sc' n', sgen (mode st) (j_buf jst) (j_scope jst) (j_n jst) s = (j, (sc', n')) ->
     gres o (jwalk o fuel (snode s)) jst (sprint (j_indent jst) j) (j_indent jst) (j_buf jst) (j_auto jst) sc' n') ->
  sim_step cf o cc lv st je jst s fuel text env' old.
Proof.
  intros (Hcn & Hnb & Hdenv & HGo & HJs) (Hg & Hd & ER & DR & G & Hbuf & Hmode) Hwf Hlv E HGoS HGen. unfold sim_step.
  destruct (sgen (mode st) (j_buf jst) (j_scope jst) (j_n jst) s) as [j [sc' n']] eqn:Eg. cbn [fst].
  destruct HGoS as (st' & ws & rv & E1 & W1 & C1 & M1 & N1 & T1 & A1 & D1).
  destruct (proj1 (js_exec_all (c_ij cf) (mode st) (cc_denv cc) (cc_callee cc) (cc_jfn cc) HJs) s (j_buf jst) (j_scope jst) (j_n jst) (sc_lookup (ctx st)) je old text env' j sc' n' G E (conj ER Hbuf) DR Eg)
    as (je' & E2 & (ER' & Hbuf') & (D2 & F2)).
  destruct (HGen j sc' n' eq_refl) as (jst' & E3 & O3 & (I3 & B3 & A3 & S3 & N3) & _).
  destruct (sgen_scope _ _ _ _ _ _ _ _ Eg (gi_nonempty _ _ _ G)) as [Htl _].
  exists st', ws, rv, je', jst'.
  split; [exact E1|]. split; [exact W1|]. split; [exact C1|]. split; [exact M1|]. split; [exact T1|]. split; [exact A1|].
  split; [exact E2|]. split; [exact D2|]. split; [exact E3|]. split; [exact O3|]. split; [exact I3|]. split; [exact B3|].
  split; [rewrite S3; exact Htl|].
  split; [|rewrite S3; exact (lvok_after lv _ _ _ _ _ _ _ _ (swf_binder lv s Hwf) Eg Hlv)].
  unfold sim. split; [exact (wrote_wok _ _ _ W1 Hg)|]. split; [exact D1|].
  split; [rewrite S3; eapply env_rel_ext; [|exact ER']; intro k; symmetry; apply A1|]. split; [rewrite D2; exact DR|].
  split; [rewrite S3, N3, B3; exact (ginv_after _ _ _ _ _ _ _ _ (swf_binder lv s Hwf) Eg G)|]. split; [rewrite B3; exact Hbuf'|congruence].
Qed.

Theorem gen_correct_partial_stmt cf o cc lv st je jst s fuel text env' old :
  c_oblig cf = [] -> callctx_ok cf o cc -> (cc_fuel cc + sdepth s < fuel)%nat -> sim cf cc st je jst old ->
  swf lv s = true -> lvok lv (j_scope jst) ->
  sout (c_ij cf) (mode st) go_print_text (cc_denv cc) (cc_callee cc) (sc_lookup (ctx st)) s = Some (text, env') ->
  sim_step cf o cc lv st je jst s fuel text env' old.
Proof.
  intros Hob Hcc Hf HS Hwf Hlv E. pose proof Hcc as (Hcn & Hnb & Hdenv & HGo & _). pose proof HS as (Hg & Hd & ER & _ & G & _ & Hmode).
  apply (sim_step_sides cf o cc lv st je jst s fuel text env' old Hcc HS Hwf Hlv E).
  - apply (proj1 (interp_all cf Hob (er_core_ij _ _ _ _ ER) (cc_denv cc) Hdenv (cc_callee cc) (cc_fuel cc) HGo) s fuel st text (sc_lookup (ctx st)) env' Hf Hg
             (dinv_nonempty _ _ Hd) (conj (fun k => eq_refl) Hd)); [|exact E].
    exact (er_core_some _ _ _ _ ER).
  - intros j sc' n' Eg. rewrite <- Hmode in Eg.
    exact (proj1 (sgen_print_all o Hcn Hnb) s lv fuel jst j sc' n' _ _ _ _ _ ltac:(lia) (gi_nonempty _ _ _ G) Hlv Hwf (shape_refl jst) Eg).
Qed.

(* the general statement with sim and sim_step unfolded, for a renderer that writes to its output (no capture
   buffer, no budget), as stated in Properties/C04.v *)
Theorem gen_correct_partial_stmt_unfolded : forall cf o cc lv st je jst s fuel text env' old,
  c_oblig cf = [] -> callctx_ok cf o cc -> (cc_fuel cc + sdepth s < fuel)%nat ->
  swf lv s = true -> lvok lv (j_scope jst) ->
  (* sim cf cc st je jst old *)
  bufs st = [] -> calls_left st = None -> bytes_left st = None -> dinv (cc_denv cc) (ctx st) ->
  env_rel (j_scope jst) (c_ij cf) (sc_lookup (ctx st)) je ->
  datarel (cc_denv cc) (je_data je) ->
  ginv (j_scope jst) (j_n jst) (j_buf jst) ->
  assoc_s (j_buf jst) (je_vars je) = Some (JStr old) ->
  j_auto jst = mode st ->
  sout (c_ij cf) (mode st) go_print_text (cc_denv cc) (cc_callee cc) (sc_lookup (ctx st)) s = Some (text, env') ->
  exists st' ws rv je' jst',
    let j := fst (sgen (mode st) (j_buf jst) (j_scope jst) (j_n jst) s) in
    walk cf fuel (snode s) st = (Ok rv, st') /\ out st' = rev ws ++ out st /\ concat_b ws = text
    /\ mode st' = mode st /\ tl (ctx st') = tl (ctx st) /\ (forall k, sc_lookup (ctx st') k = env' k)
    /\ js_exec (cc_jfn cc) je j = Ok je' /\ je_data je' = je_data je
    /\ jwalk o fuel (snode s) jst = Ok (tt, jst') /\ j_out jst' = rev (sprint (j_indent jst) j) ++ j_out jst
    /\ j_indent jst' = j_indent jst /\ j_buf jst' = j_buf jst /\ tl (j_scope jst') = tl (j_scope jst)
    (* sim cf cc st' je' jst' (old ++ text) *)
    /\ bufs st' = [] /\ calls_left st' = None /\ bytes_left st' = None /\ dinv (cc_denv cc) (ctx st')
    /\ env_rel (j_scope jst') (c_ij cf) (sc_lookup (ctx st')) je'
    /\ datarel (cc_denv cc) (je_data je')
    /\ ginv (j_scope jst') (j_n jst') (j_buf jst')
    /\ assoc_s (j_buf jst') (je_vars je') = Some (JStr (old ++ text))
    /\ j_auto jst' = mode st' /\ lvok lv (j_scope jst').
Proof.
  intros cf o cc lv st je jst s fuel text env' old Hob Hcc Hf Hwf Hlv H1 H2 H3 H4 H5 H5d H6 H7 H8 E.
  assert (W : wok st) by (unfold wok; rewrite H1; auto).
  destruct (gen_correct_partial_stmt cf o cc lv st je jst s fuel text env' old Hob Hcc Hf (conj W (conj H4 (conj H5 (conj H5d (conj H6 (conj H7 H8)))))) Hwf Hlv E)
    as (st' & ws & rv & je' & jst' & A1 & A2 & A3 & A4 & A5 & A6 & A7 & A8 & A9 & A10 & A11 & A12 & A13 & (B1 & B4 & B5 & B5d & B6 & B7 & B8) & Hlv').
  destruct (wrote_out _ _ _ H1 A2) as [Hb Ho]. destruct A2 as (Hcl & Hby & _).
  exists st', ws, rv, je', jst'. cbn zeta in *.
  split; [exact A1|]. split; [exact Ho|]. split; [exact A3|]. split; [exact A4|]. split; [exact A5|]. split; [exact A6|].
  split; [exact A7|]. split; [exact A8|]. split; [exact A9|]. split; [exact A10|]. split; [exact A11|]. split; [exact A12|]. split; [exact A13|].
  split; [exact Hb|]. split; [congruence|]. split; [congruence|]. split; [exact B4|]. split; [exact B5|]. split; [exact B5d|]. split; [exact B6|]. split; [exact B7|]. split; [exact B8|exact Hlv'].
Qed.

(* a context for statements without calls: no callee writes anything (sout is None on every call) *)
Definition cc_nocalls (denv : bstr -> option value) : callctx :=
  {| cc_denv := denv; cc_callee := fun _ _ => None; cc_jfn := fun _ _ _ => OutOfModel; cc_fuel := 0 |}.
Lemma nocallee_go cf : go_callee_ok cf (fun _ _ => None) 0.
Proof. intros name cenv text H. discriminate. Qed.
Lemma nocallee_js ij jfn : js_callee_ok ij (fun _ _ => None) jfn.
Proof. intros name cenv text jd ijv H. discriminate. Qed.
Lemma cc_nocalls_ok cf o denv : cn_ok o -> o_msgs o = None -> envok denv -> callctx_ok cf o (cc_nocalls denv).
Proof.
  intros Hcn Hnb Hd. split; [exact Hcn|]. split; [exact Hnb|]. split; [exact Hd|]. split.
  - intros name cenv text H. discriminate.
  - intros name cenv text jd ijv H. discriminate.
Qed.

(* names without an underscore are never generated names *)
Lemma bounded_no_us n g : ~ In 95 g -> bounded n g.
Proof. intros H v m E. exfalso. apply H. rewrite E. unfold jsc_name. apply in_or_app. right. left. reflexivity. Qed.
Lemma bounded_name n v m : m <= n -> bounded n (jsc_name v m).
Proof. intros H v' m' E. apply jsc_name_inj in E. lia. Qed.

(* the JavaScript side for one statement, with jinv and frame unfolded *)
Theorem js_exec_stmt : forall ij mode denv callee jfn buf s sc n env je old text env' j sc' n',
  js_callee_ok ij callee jfn ->
  ginv sc n buf -> sout ij mode go_print_text denv callee env s = Some (text, env') ->
  env_rel sc ij env je -> assoc_s buf (je_vars je) = Some (JStr old) -> datarel denv (je_data je) ->
  sgen mode buf sc n s = (j, (sc', n')) ->
  exists je', js_exec jfn je j = Ok je'
    /\ (env_rel sc' ij env' je' /\ assoc_s buf (je_vars je') = Some (JStr (old ++ text)))
    /\ (je_data je' = je_data je
        /\ forall g, bounded n g -> bstr_eqb g buf = false -> assoc_s g (je_vars je') = assoc_s g (je_vars je)).
Proof.
  intros ij mode denv callee jfn buf s sc n env je old text env' j sc' n' HJ G E ER Hb DR Eg.
  exact (proj1 (js_exec_all ij mode denv callee jfn HJ) s buf sc n env je old text env' j sc' n' G E (conj ER Hb) DR Eg).
Qed.

