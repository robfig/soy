(* Source tie, family 79-gotrans-soyhtml-scope: soyhtml/scope.go (push, pop, set, lookup, alldata, enter)
   and the loop functions index / isFirst / isLast of soyhtml/funcs.go with the hidden loop names of exec.go, against
   Model/Interp.v's sc_ functions, s_index / s_lastindex and loop_func.

   Representation.  Go's scope is a slice of frames {vars data.Map; entered bool} that grows at the end; the model's is
   a list of frames that grows at the head, whose [f_vars] is an association list kept sorted by map_set, and whose
   [f_origin] is a ghost field (which Go map a frame's vars is).  [scope_rel gs s]: the Go stack is [rev gs], frame by
   frame the entered flags are equal and the maps agree on every key ([assoc_s]).  Every lemma starts from related
   scopes and ends in related scopes, so they compose along any sequence of operations.  The bound on the stack height
   keeps Go's int arithmetic from wrapping. *)
From Coq Require Import ZArith NArith Bool Lia ZifyBool List.
From Soy Require Import Model.Bytes Model.Outcome Model.Values Model.Ast Generated.Tables Model.Interp Proofs.BytesBase Proofs.SourceTieBase Proofs.SourceTieValue.
From Soy Require Import Proofs.SourceTieState.
Import ListNotations.
Open Scope N_scope.

Notation gframe := (list (bstr * value) * bool)%type.

Definition frame_rel (g : gframe) (f : frame) : Prop :=
  snd g = f_entered f /\ forall k, assoc_s k (fst g) = assoc_s k (f_vars f).

Definition scope_rel (gs : list gframe) (s : scope) : Prop := Forall2 frame_rel gs s.

Lemma scope_rel_length gs s : scope_rel gs s -> length gs = length s.
Proof. induction 1; cbn [length]; congruence. Qed.

(* ---- maps: Go's assignment against the model's sorted insertion ---- *)
Lemma st_assoc_s_go_set_same {A} (m : list (bstr * A)) k v : assoc_s k (go_map_set_s k v m) = Some v.
Proof.
  induction m as [|[k1 v1] r IH]; cbn [go_map_set_s assoc_s]; [now rewrite bstr_eqb_refl|].
  destruct (bstr_eqb k k1) eqn:E; cbn [assoc_s]; [now rewrite bstr_eqb_refl|]. rewrite E. exact IH.
Qed.

Lemma st_assoc_s_go_set_other {A} (m : list (bstr * A)) k q v :
  bstr_eqb q k = false -> assoc_s q (go_map_set_s k v m) = assoc_s q m.
Proof.
  intros Hq. induction m as [|[k1 v1] r IH]; cbn [go_map_set_s assoc_s]; [now rewrite Hq|].
  destruct (bstr_eqb k k1) eqn:E; cbn [assoc_s].
  - apply bstr_eqb_true in E. subst k1. now rewrite Hq.
  - destruct (bstr_eqb q k1); [reflexivity|exact IH].
Qed.

Lemma st_assoc_s_map_set_same m k (v : value) : assoc_s k (map_set m k v) = Some v.
Proof.
  induction m as [|[k1 v1] r IH]; cbn [map_set assoc_s]; [now rewrite bstr_eqb_refl|].
  destruct (bstr_eqb k k1) eqn:E; cbn [assoc_s]; [now rewrite bstr_eqb_refl|].
  destruct (bstr_ltb k k1); cbn [assoc_s]; [now rewrite bstr_eqb_refl | rewrite E; exact IH].
Qed.

Lemma st_assoc_s_map_set_other m k q (v : value) : bstr_eqb q k = false -> assoc_s q (map_set m k v) = assoc_s q m.
Proof.
  intros Hq. induction m as [|[k1 v1] r IH]; cbn [map_set assoc_s]; [now rewrite Hq|].
  destruct (bstr_eqb k k1) eqn:E; cbn [assoc_s].
  - apply bstr_eqb_true in E. subst k1. now rewrite Hq.
  - destruct (bstr_ltb k k1); cbn [assoc_s]; [now rewrite Hq|]. destruct (bstr_eqb q k1); [reflexivity|exact IH].
Qed.

Lemma set_rel (g : gframe) (f : frame) k v :
  frame_rel g f ->
  frame_rel (go_map_set_s k v (fst g), snd g)
            {| f_vars := map_set (f_vars f) k v; f_entered := f_entered f; f_origin := f_origin f |}.
Proof.
  intros [He Hm]. split; [exact He|]. intros q. cbn [fst f_vars].
  destruct (bstr_eqb q k) eqn:E.
  - apply bstr_eqb_true in E. subst q. now rewrite st_assoc_s_go_set_same, st_assoc_s_map_set_same.
  - rewrite st_assoc_s_go_set_other, st_assoc_s_map_set_other by exact E. apply Hm.
Qed.

(* ---- push / pop / set / enter ---- *)
Theorem sc_push_matches_source gs s :
  scope_rel gs s -> exists gs', src_soyhtml_scope_push value (rev gs) = rev gs' /\ scope_rel gs' (sc_push s).
Proof.
  intros R. exists (([], false) :: gs). split; [reflexivity|].
  constructor; [|exact R]. split; reflexivity.
Qed.

(* pop, set and enter of an empty stack panic in Go; the model's m_set answers Err e_index there, and its sc_pop / sc_enter
   are never reached with an empty stack (a frame is pushed before every pop) *)
Theorem sc_pop_matches_source gs s :
  scope_rel gs s -> st_small (go_len gs) ->
  match s with
  | [] => src_soyhtml_scope_pop value (rev gs) = None
  | _ => exists gs', src_soyhtml_scope_pop value (rev gs) = Some (rev gs') /\ scope_rel gs' (sc_pop s)
  end.
Proof.
  intros R Hs. unfold src_soyhtml_scope_pop. rewrite st_go_len_rev. unfold st_small in Hs. rewrite st_wrap64 by lia.
  destruct R as [|g f gs s Rf R]; [reflexivity|].
  exists gs. rewrite go_slice_l_pop. split; [reflexivity|exact R].
Qed.

Theorem sc_set_matches_source gs s k v :
  scope_rel gs s -> st_small (go_len gs) ->
  match s with
  | [] => src_soyhtml_scope_set value (rev gs) k v = None
  | _ => exists gs', src_soyhtml_scope_set value (rev gs) k v = Some (rev gs') /\ scope_rel gs' (sc_set s k v)
  end.
Proof.
  intros R Hs. unfold src_soyhtml_scope_set. rewrite st_go_len_rev. unfold st_small in Hs. rewrite st_wrap64 by lia.
  destruct R as [|g f gs s Rf R]; [reflexivity|].
  rewrite go_index_top. cbn [go_bind]. rewrite go_set_nth_top. cbn [go_bind].
  destruct g as [m e]. eexists. split; [reflexivity|].
  constructor; [|exact R]. exact (set_rel (m, e) f k v Rf).
Qed.

Theorem sc_enter_matches_source gs s :
  scope_rel gs s -> st_small (go_len gs) ->
  match s with
  | [] => src_soyhtml_scope_enter value (rev gs) = None
  | _ => exists gs', src_soyhtml_scope_enter value (rev gs) = Some (rev gs') /\ scope_rel gs' (sc_enter s)
  end.
Proof.
  intros R Hs. unfold src_soyhtml_scope_enter. rewrite st_go_len_rev. unfold st_small in Hs. rewrite st_wrap64 by lia.
  destruct R as [|g f gs s Rf R]; [reflexivity|].
  rewrite go_index_top. cbn [go_bind]. rewrite go_set_nth_top. cbn [go_bind]. cbv zeta.
  destruct g as [m e]. eexists (([], false) :: (m, true) :: gs). split; [reflexivity|].
  constructor; [split; reflexivity|]. constructor; [|exact R].
  destruct Rf as [_ Hm]. split; [reflexivity|exact Hm].
Qed.

(* ---- lookup ---- *)
Lemma st_nth_error_skipn {A} (i : nat) (s : list A) (f : A) (rest : list A) : skipn i s = f :: rest -> nth_error s i = Some f.
Proof.
  revert s. induction i as [|i IH]; intros [|x s] E; cbn [skipn] in E; try discriminate.
  - now inversion E.
  - cbn [nth_error]. now apply IH.
Qed.

Lemma st_skipn_lt {A} (i : nat) (s : list A) (f : A) (rest : list A) : skipn i s = f :: rest -> (i < length s)%nat.
Proof.
  intros E. assert (length (skipn i s) = S (length rest)) as L by now rewrite E. rewrite skipn_length in L. lia.
Qed.

(* scope.lookup walks the stack from its end: gotrans translates every spelling of that walk as one list loop over
   `rev s` (gotrans_norm.go: revRange), so this is an induction on the model's stack *)
Lemma sc_lookup_loop_matches (k : bstr) (gs : list gframe) (s : scope) :
  scope_rel gs s ->
  src_soyhtml_scope_lookup_loop1 value gs k =
  Some (match sc_lookup s k with Some v => go_ret v | None => go_exit tt end).
Proof.
  intros R. induction R as [|g f gs s Rf R IH]; [reflexivity|].
  cbn [src_soyhtml_scope_lookup_loop1 sc_lookup]. cbv zeta. destruct g as [m e]. destruct Rf as [_ Hm]. cbn [fst] in Hm.
  rewrite Hm. destruct (assoc_s k (f_vars f)) as [v|]; [reflexivity|exact IH].
Qed.

Definition st_lookup_or_undef (s : scope) (k : bstr) : value :=
  match sc_lookup s k with Some v => v | None => VUndef end.

Theorem sc_lookup_matches_source gs s k :
  scope_rel gs s -> st_small (go_len gs) ->
  src_soyhtml_scope_lookup value VUndef (rev gs) k = Some (st_lookup_or_undef s k).
Proof.
  intros R _. unfold src_soyhtml_scope_lookup. cbv zeta. rewrite rev_involutive, (sc_lookup_loop_matches k gs s R).
  unfold st_lookup_or_undef. destruct (sc_lookup s k); reflexivity.
Qed.

(* m_lookup is that, plus the count of unbound names that the hook notifyUnbound feeds in the harness's build *)
Theorem m_lookup_matches_source gs k (st : mstate) :
  scope_rel gs (ctx st) -> st_small (go_len gs) ->
  match src_soyhtml_scope_lookup value VUndef (rev gs) k with
  | Some v => fst (m_lookup k st) = Ok v
  | None => False
  end.
Proof.
  intros R Hs. rewrite (sc_lookup_matches_source gs (ctx st) k R Hs). unfold m_lookup, st_lookup_or_undef.
  destruct (sc_lookup (ctx st) k); reflexivity.
Qed.

(* ---- alldata ---- *)
(* alldata walks the stack from its end and uses the position too (s[:i+1]): gotrans translates every spelling of such a
   walk as ONE list loop over `rev s` with a key that counts from the end (gotrans_norm.go: revRange), the position is
   computed from the key in the body.  The proof follows the MODEL's stack; the upper bound of the slice is whatever
   the source writes, as long as lia sees that it is length - key. *)
Lemma st_slice_rev_skipn {A} (gs : list A) (i : nat) :
  st_small (go_len gs) -> (i <= length gs)%nat ->
  go_slice_l (rev gs) 0%Z (Z.of_nat (length gs - i)) = Some (rev (skipn i gs)).
Proof.
  intros Hs Hi. unfold st_small in Hs. unfold go_slice_l. rewrite st_go_len_rev.
  replace (orb _ _) with false by (unfold go_len in *; lia).
  change (Z.to_nat 0) with O. cbn [skipn]. rewrite Z.sub_0_r, Nat2Z.id.
  rewrite firstn_rev. do 3 f_equal. lia.
Qed.

Ltac st_unwrap64 :=
  repeat match goal with
         | |- context [go_wrap_s 64%Z ?x] => rewrite (st_wrap64 x) by (unfold go_len in *; lia)
         end.

Lemma sc_alldata_loop_matches (gs : list gframe) :
  st_small (go_len gs) ->
  forall (rest : list gframe) (srest : scope) (i : nat),
    skipn i gs = rest -> (i <= length gs)%nat -> scope_rel rest srest ->
    match sc_alldata srest with
    | Some s' => src_soyhtml_scope_alldata_loop1 value rest (rev gs) (Z.of_nat i) =
                 Some (go_ret (rev (skipn (length gs - length s') gs))) /\ scope_rel (skipn (length gs - length s') gs) s'
    | None => src_soyhtml_scope_alldata_loop1 value rest (rev gs) (Z.of_nat i) = Some (go_exit tt)
    end.
Proof.
  intros Hs rest. induction rest as [|g rest IH]; intros srest i E Hi R.
  - inversion R; subst. reflexivity.
  - inversion R as [|g' f rest' srest' Rf R']; subst.
    pose proof (st_skipn_lt _ _ _ _ E) as Hlt.
    pose proof (scope_rel_length _ _ R') as HL.
    assert (length rest = length gs - S i)%nat as Hrest.
    { assert (length (skipn i gs) = S (length rest)) as L by now rewrite E. rewrite skipn_length in L. lia. }
    cbn [sc_alldata]. destruct g as [m e]. destruct Rf as [He Hm]. cbn [snd] in He.
    cbn [src_soyhtml_scope_alldata_loop1]. cbv beta iota zeta. rewrite <- He. rewrite ?st_go_len_rev.
    pose proof Hs as Hs'. unfold st_small in Hs'.
    destruct e.
    + st_unwrap64.
      match goal with |- context [go_slice_l _ 0%Z ?hi] =>
        replace hi with (Z.of_nat (length gs - i)) by (unfold go_len in *; lia) end.
      rewrite (st_slice_rev_skipn gs i Hs) by lia. cbn [go_bind length].
      replace (length gs - S (length srest'))%nat with i by lia.
      split; [reflexivity|]. rewrite E. constructor; [split; [exact He|exact Hm]|exact R'].
    + specialize (IH srest' (S i) (st_skipn_S _ _ _ _ E) ltac:(lia) R').
      replace (Z.of_nat i + 1)%Z with (Z.of_nat (S i)) by lia. exact IH.
Qed.

Theorem sc_alldata_matches_source gs s :
  scope_rel gs s -> st_small (go_len gs) ->
  match sc_alldata s with
  | Some s' => exists gs', src_soyhtml_scope_alldata value (rev gs) = Some (rev gs') /\ scope_rel gs' s'
  | None => src_soyhtml_scope_alldata value (rev gs) = None          (* panic("impossible") *)
  end.
Proof.
  intros R Hs. unfold src_soyhtml_scope_alldata. cbv zeta. rewrite rev_involutive.
  pose proof (sc_alldata_loop_matches gs Hs gs s 0%nat eq_refl ltac:(lia) R) as H.
  change (Z.of_nat 0) with 0%Z in H.
  destruct (sc_alldata s) as [s'|].
  - destruct H as [H R']. rewrite H. eexists. split; [reflexivity|exact R'].
  - rewrite H. reflexivity.
Qed.

(* ---- the hidden loop names, and the loop functions ---- *)
Theorem s_index_matches_source (v : bstr) : v ++ s_index = src_soyhtml_state_walk_keyInd v.
Proof. reflexivity. Qed.
Theorem s_lastindex_matches_source (v : bstr) : v ++ s_lastindex = src_soyhtml_state_walk_keyLast v.
Proof. reflexivity. Qed.

Definition st_as_int (v : value) : option Z := match v with VInt i => Some i | _ => None end.

(* funcIndex / funcIsFirst / funcIsLast on related scopes; [None] is the failed type assertion (a panic that
   evalFunc's recover turns into the error loop_func reports as e_type) *)
Theorem loop_func_matches_source gs (st : mstate) (p : N) (key : bstr) (x : list node) (rest : list node) :
  scope_rel gs (ctx st) -> st_small (go_len gs) ->
  fst (loop_func n_index (NDataRef p key x :: rest) st) =
    match src_soyhtml_funcIndex value VUndef (rev gs) key with Some v => Ok v | None => Err e_type end /\
  fst (loop_func n_isFirst (NDataRef p key x :: rest) st) =
    match src_soyhtml_funcIsFirst value VUndef VBool st_as_int (rev gs) key with Some v => Ok v | None => Err e_type end /\
  fst (loop_func n_isLast (NDataRef p key x :: rest) st) =
    match src_soyhtml_funcIsLast value VUndef VBool st_as_int (rev gs) key with Some v => Ok v | None => Err e_type end.
Proof.
  intros R Hs.
  unfold src_soyhtml_funcIndex, src_soyhtml_funcIsFirst, src_soyhtml_funcIsLast.
  fold (src_soyhtml_state_walk_keyInd key). fold (src_soyhtml_state_walk_keyLast key).
  rewrite <- s_index_matches_source, <- s_lastindex_matches_source.
  rewrite !(sc_lookup_matches_source gs (ctx st) _ R Hs). cbn [go_bind].
  unfold loop_func, mbind, m_lookup, st_lookup_or_undef.
  change (fn_is n_index n_index) with true. change (fn_is n_isFirst n_index) with false.
  change (fn_is n_isLast n_index) with false. change (fn_is n_isFirst n_isFirst) with true.
  change (fn_is n_isLast n_isFirst) with false. cbv iota.
  repeat split.
  - destruct (sc_lookup (ctx st) (key ++ s_index)); reflexivity.
  - destruct (sc_lookup (ctx st) (key ++ s_index)) as [[]|]; reflexivity.
  - destruct (sc_lookup (ctx st) (key ++ s_index)) as [[]|] eqn:E1; cbn [st_as_int go_bind fst]; try reflexivity.
    all: cbn [ctx]; destruct (sc_lookup (ctx st) (key ++ s_lastindex)) as [[]|] eqn:E2; cbn [st_as_int go_bind fst]; reflexivity.
Qed.

(* ---- the same on the interpreter's state: m_push / m_pop / m_set (Model/Interp.v) keep the scopes related ---- *)
Theorem m_push_matches_source gs (st : mstate) :
  scope_rel gs (ctx st) ->
  exists gs', src_soyhtml_scope_push value (rev gs) = rev gs' /\
              fst (m_push st) = Ok tt /\ scope_rel gs' (ctx (snd (m_push st))).
Proof.
  intros R. destruct (sc_push_matches_source gs (ctx st) R) as (gs' & E & R').
  exists gs'. split; [exact E|]. split; [reflexivity|exact R'].
Qed.

Theorem m_pop_matches_source gs (st : mstate) :
  scope_rel gs (ctx st) -> st_small (go_len gs) -> ctx st <> [] ->
  exists gs', src_soyhtml_scope_pop value (rev gs) = Some (rev gs') /\
              fst (m_pop st) = Ok tt /\ scope_rel gs' (ctx (snd (m_pop st))).
Proof.
  intros R Hs Hne. pose proof (sc_pop_matches_source gs (ctx st) R Hs) as H.
  destruct (ctx st) as [|f r] eqn:E; [congruence|]. destruct H as (gs' & E' & R').
  exists gs'. split; [exact E'|]. split; [reflexivity|]. unfold m_pop, modify. cbn [snd ctx set_ctx]. rewrite E. exact R'.
Qed.

(* set: the binding lands in the deepest frame; on an empty stack Go panics (index out of range) and the model reports
   e_index; the model's note of a write into a caller-owned map (f_origin) is a ghost of C08 and has no Go counterpart *)
Theorem m_set_matches_source gs (st : mstate) (k : bstr) (v : value) :
  scope_rel gs (ctx st) -> st_small (go_len gs) ->
  match src_soyhtml_scope_set value (rev gs) k v with
  | Some g' => fst (m_set k v st) = Ok tt /\ scope_rel (rev g') (ctx (snd (m_set k v st)))
  | None => fst (m_set k v st) = Err e_index
  end.
Proof.
  intros R Hs. pose proof (sc_set_matches_source gs (ctx st) k v R Hs) as H.
  unfold m_set. destruct (ctx st) as [|f r] eqn:E.
  - rewrite H. reflexivity.
  - destruct H as (gs' & E' & R'). rewrite E'. rewrite rev_involutive. split; [reflexivity|].
    cbn [snd]. destruct (sc_top_origin (f :: r)); cbn [ctx set_ctx]; exact R'.
Qed.
