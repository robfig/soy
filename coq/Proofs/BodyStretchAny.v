(* C15, template level: ONE stretch of text between ANY two tags.  The scanner half (lexText and the comment
   states up to the next "{" or the end of the input, Proofs/LexBodyMixMain.v lex_stretch) and the parser half
   (itemList / textOrTag over the items of the stretch, whatever item follows them and whatever until-set the
   enclosing command reads with, Proofs/ParseTemplate.v stretch_nodes_u) composed: the text between two tags is
   normalised as the Spec says whatever the tags are -- the only things the neighbours contribute are the byte in
   front of the stretch (the "}" of a tag: a leading "//" is text) and the fact that a tag is an unflagged end. *)
From Soy Require Import Model.Bytes Model.Outcome Model.Token Model.Parser Model.Lexer Generated.Tables Spec.Text Spec.TextMix
  Proofs.ExprParserRules Proofs.LexTokens Proofs.LexBodyText Proofs.LexBodySeg Proofs.LexBodyMixMain Proofs.ParseBodyText
  Proofs.ParseTemplate.
Open Scope N_scope.

Section StretchAny.
Variable uni_letter uni_digit : Z -> bool.
Hypothesis letter_ascii : forall c, (c < 128)%N -> uni_letter (Z.of_N c) = ((65 <=? c) && (c <=? 90) || (97 <=? c) && (c <=? 122))%N.
Hypothesis digit_ascii : forall c, (c < 128)%N -> uni_digit (Z.of_N c) = digit_b c.
Hypothesis letter_eof : uni_letter (-1)%Z = false.
Hypothesis digit_eof : uni_digit (-1)%Z = false.

Theorem stretch_any_neighbours inp l T tl out :
  span inp l [] (T ++ tl) -> plain T -> tag_or_end tl ->
  body_text (pwof 0 l) T = Some out -> (tl <> [] -> line_open MText (pwof 0 l) T = false) ->
  exists k l' its st',
    steps uni_letter uni_digit inp 0 k LText l = Ok (st', l') /\ l_dd l' = l_dd l /\
    ((tl = [] /\ st' = LDone /\ exists e, t_typ e = itemEOF /\ l_out l' = e :: rev its ++ l_out l) \/
     (tl <> [] /\ st' = LLeftDelim /\ l_out l' = rev its ++ l_out l /\ span inp l' [] tl)) /\
    forall inlen lexq unq pexpr efuel pe w lf until,
      one_of pit_Text until = false -> one_of pit_LeftDelim until = false ->
      (forall t o, assoc t parser_special_chars = Some o -> one_of t until = false) -> one_of pit_Literal until = false ->
      forall nx rest acc pos s, t_typ nx <> pit_Text -> t_typ nx <> pit_Comment ->
      stream (c_p s) = its ++ nx :: rest -> inv (c_p s) -> (length its + 2 <= lf)%nat ->
      exists j pre' nodes pos' s', Forall is_comment pre' /\ Forall is_raw nodes /\ concat (map raw_text_of nodes) = out /\
        stream (c_p s') = pre' ++ nx :: rest /\ inv (c_p s') /\
        forall f, item_list_loop inlen lexq unq pexpr efuel pe w lf (j + f) until pos acc s
                = item_list_loop inlen lexq unq pexpr efuel pe w lf f until pos' (acc ++ nodes) s'.
Proof.
  intros Hs Hpl Htl Hout Hlo. unfold body_text in Hout.
  destruct (pieces MText (pwof 0 l) [] T) as [pcs|] eqn:Hp; [|discriminate]. injection Hout as <-.
  destruct (lex_stretch uni_letter uni_digit letter_ascii digit_ascii letter_eof digit_eof inp (length T) T (le_n _) l pcs tl Hs Hpl Htl Hp Hlo)
    as (k & l' & its & st' & Hst & Hsh & Hdd & Hend).
  exists k, l', its, st'. split; [exact Hst|]. split; [exact Hdd|]. split; [exact Hend|].
  intros inlen lexq unq pexpr efuel pe w lf until Hut Hul Hus Hult nx rest acc pos s Hnt Hnc Hstr Hi Hlf.
  destruct (stretch_nodes_u inlen lexq unq pexpr efuel pe w lf until Hut Hul Hus Hult pcs its Hsh (pieces_no_nul _ _ _ Hpl Hp) [] ltac:(constructor) nx rest acc pos s Hnt Hnc Hstr Hi Hlf)
    as (j & pre' & nodes & pos' & s' & _ & Hpre' & _ & Hraw & Hcat & Hst' & Hi' & Hrun).
  exists j, pre', nodes, pos', s'. auto 10.
Qed.

End StretchAny.

(* behind the "}" of any tag the stretch starts like a stretch that does not begin the input: "//" is text *)
Lemma pwof_after_brace l : t_val (l_last l) = [125%N] -> pwof 0 l = false.
Proof. intros H. unfold pwof. rewrite H. reflexivity. Qed.
