(* Source tie, family 72-gotrans-rawtext-quote, the rawtext part (parse/rawtext.go): the
   tight-joiner test and the two space classes of the line-joining rule (Model/RawText.v)
   against the same functions as gotrans translates them from the source of the tree under check. *)
From Coq Require Import ZArith NArith Bool Lia ZifyBool List.
From Soy Require Import Model.Bytes Generated.Tables Model.RawText Proofs.SourceTieBase.
Import ListNotations.
Open Scope N_scope.

(* rawtext.go isTightJoiner *)
Lemma is_tight_joiner_matches_source (r : N) : is_tight_joiner r = src_parse_isTightJoiner (Z.of_N r).
Proof. unfold is_tight_joiner, src_parse_isTightJoiner. bool_lia. Qed.

(* rawtext.go uses lexer.go's isSpace / isEndOfLine; Model/RawText.v has its own copies over N *)
Lemma rawtext_is_space_matches_source (r : N) : is_space r = src_parse_isSpace (Z.of_N r).
Proof. unfold is_space, src_parse_isSpace. bool_lia. Qed.

Lemma rawtext_is_eol_matches_source (r : N) : is_eol r = src_parse_isEndOfLine (Z.of_N r).
Proof. unfold is_eol, src_parse_isEndOfLine. bool_lia. Qed.
