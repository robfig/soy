(* C12: a failing output writer always surfaces.  Two-run simulation between a
   render against a faulty writer automaton (calls_left / bytes_left) and the
   fault-free render, as a walker logic (Proofs/InterpLogic.v, Part B) for the
   predicate on computations

       wsim m  :=  forall st, sim st (m st) (m (unfault st))

   where [unfault st] is [st] with an unfailing writer.  [sim] says: the
   fault-free run extends the output by [new0]; and EITHER the faulty run
   returns the same outcome in the same state (up to the writer budgets, which
   decreased by exactly the calls and bytes of [new0]), OR the faulty run ended
   with the write error, what it accepted is a prefix of [new0], and a budget
   was smaller than [new0] needs. *)
From Soy Require Import Model.Bytes Model.Num Model.Values Model.Outcome Model.Ast
  Model.Escape Model.Directives Model.Print Generated.Tables Model.Interp Proofs.InterpLogic.
From Soy Require Export Proofs.BytesBase.
Require Import Lia ZifyBool.
Open Scope N_scope.

(* the bytes of a reversed list of Write calls, in order *)
Definition acc (l : list bstr) : bstr := concat_b (rev l).
Lemma acc_app x y : acc (x ++ y) = acc y ++ acc x.
Proof. unfold acc. rewrite rev_app_distr, concat_b_app. reflexivity. Qed.
Lemma acc_nil : acc [] = [].
Proof. reflexivity. Qed.
Lemma acc_one w : acc [w] = w.
Proof. unfold acc. cbn. apply app_nil_r. Qed.

Definition prefix (p s : bstr) : Prop := exists rest, s = p ++ rest.
Lemma prefix_nil s : prefix [] s.
Proof. exists s. reflexivity. Qed.
Lemma prefix_refl s : prefix s s.
Proof. exists []. symmetry. apply app_nil_r. Qed.
Lemma prefix_app_r p s t : prefix p s -> prefix p (s ++ t).
Proof. intros [r ->]. exists (r ++ t). rewrite app_assoc. reflexivity. Qed.
Lemma prefix_app_l a p s : prefix p s -> prefix (a ++ p) (a ++ s).
Proof. intros [r ->]. exists r. rewrite app_assoc. reflexivity. Qed.
Lemma prefix_length p s : prefix p s -> (length p <= length s)%nat.
Proof. intros [r ->]. rewrite app_length. lia. Qed.

Definition unfault (st : mstate) : mstate := set_out st (out st) None None.

Lemma unfault_idem st : unfault (unfault st) = unfault st.
Proof. reflexivity. Qed.

Definition calls_acct (cl cl' : option nat) (n : nat) : Prop :=
  match cl with None => cl' = None | Some k => exists k', cl' = Some k' /\ k = (k' + n)%nat end.
Definition bytes_acct (bl bl' : option N) (n : nat) : Prop :=
  match bl with None => bl' = None | Some k => exists k', bl' = Some k' /\ k = k' + N.of_nat n end.

(* a budget of [st] is too small for the writes [new0] *)
Definition starved (st : mstate) (new0 : list bstr) : Prop :=
  (exists k, calls_left st = Some k /\ (k < length new0)%nat) \/
  (exists k, bytes_left st = Some k /\ k < N.of_nat (length (acc new0))).

(* where the faulty run stopped: the call budget was exactly used up by whole Write calls of the
   fault-free run, or the byte budget was exactly filled *)
Definition stopped (st : mstate) (new new0 : list bstr) : Prop :=
  (calls_left st = Some (length new) /\ exists later, new0 = later ++ new) \/
  bytes_left st = Some (N.of_nat (length (acc new))).

Definition sim {A} (st : mstate) (faulty free : outcome A * mstate) : Prop :=
  let '(r, st') := faulty in
  let '(r0, st0') := free in
  exists new0,
    out st0' = new0 ++ out st /\ unfault st0' = st0' /\
    ((r = r0 /\ st0' = unfault st' /\
      calls_acct (calls_left st) (calls_left st') (length new0) /\
      bytes_acct (bytes_left st) (bytes_left st') (length (acc new0)))
     \/
     (r = Err e_write /\ starved st new0 /\
      exists new, out st' = new ++ out st /\ prefix (acc new) (acc new0) /\ stopped st new new0)).

Definition wsim {A} (m : M A) : Prop := forall st, sim st (m st) (m (unfault st)).

Lemma calls_acct_0 cl : calls_acct cl cl 0.
Proof. destruct cl; cbn; [eexists; split; [reflexivity | lia] | reflexivity]. Qed.
Lemma bytes_acct_0 bl : bytes_acct bl bl 0.
Proof. destruct bl; cbn; [eexists; split; [reflexivity | lia] | reflexivity]. Qed.
Lemma calls_acct_trans a b c n1 n2 : calls_acct a b n1 -> calls_acct b c n2 -> calls_acct a c (n2 + n1).
Proof.
  unfold calls_acct. destruct a as [k|].
  - intros (k1 & -> & ->) (k2 & -> & ->). eexists; split; [reflexivity | lia].
  - intros -> H. exact H.
Qed.
Lemma bytes_acct_trans a b c n1 n2 : bytes_acct a b n1 -> bytes_acct b c n2 -> bytes_acct a c (n1 + n2).
Proof.
  unfold bytes_acct. destruct a as [k|].
  - intros (k1 & -> & ->) (k2 & -> & ->). eexists; split; [reflexivity | lia].
  - intros -> H. exact H.
Qed.

(* a computation that neither touches nor looks at the writer *)
Definition writer_blind {A} (m : M A) : Prop :=
  forall st, m (unfault st) = (fst (m st), unfault (snd (m st))) /\
             out (snd (m st)) = out st /\ calls_left (snd (m st)) = calls_left st /\
             bytes_left (snd (m st)) = bytes_left st.

Lemma blind_wsim {A} (m : M A) : writer_blind m -> wsim m.
Proof.
  intros Hb st. destruct (Hb st) as (H1 & H2 & H3 & H4). rewrite H1.
  destruct (m st) as [r st'] eqn:Hm. cbn [fst snd] in *. cbn [sim].
  exists []. split; [cbn; unfold unfault; cbn; exact H2|]. split; [reflexivity|].
  left. split; [reflexivity|]. split; [reflexivity|]. rewrite H3, H4.
  split; [apply calls_acct_0 | apply bytes_acct_0].
Qed.

Lemma wsim_ret {A} (x : A) : wsim (ret x).
Proof. apply blind_wsim. intros st. cbn. auto. Qed.
Lemma wsim_fail {A} e : wsim (@fail A e).
Proof. apply blind_wsim. intros st. cbn. auto. Qed.
Lemma wsim_lift {A} (o : outcome A) : wsim (lift o).
Proof. apply blind_wsim. intros st. cbn. auto. Qed.
Lemma wsim_modify f :
  (forall st, f (unfault st) = unfault (f st)) ->
  (forall st, out (f st) = out st /\ calls_left (f st) = calls_left st /\ bytes_left (f st) = bytes_left st) ->
  wsim (modify f).
Proof.
  intros H1 H2. apply blind_wsim. intros st. unfold modify. cbn [fst snd].
  split; [rewrite H1; reflexivity | apply H2].
Qed.

Lemma starved_more st a b : starved st a -> starved st (b ++ a).
Proof.
  intros [(k & H1 & H2) | (k & H1 & H2)]; [left | right]; exists k; (split; [exact H1|]).
  - rewrite app_length. lia.
  - rewrite acc_app, app_length. lia.
Qed.

Lemma wsim_bind {A B} (m : M A) (f : A -> M B) : wsim m -> (forall x, wsim (f x)) -> wsim (mbind m f).
Proof.
  intros Hm Hf st. pose proof (Hm st) as H1.
  destruct (m st) as [r1 st1] eqn:Em. destruct (m (unfault st)) as [r1' st1'] eqn:Em'.
  cbn [sim] in H1. destruct H1 as (n0a & Hout1 & Hun1 & [ (-> & -> & Hc1 & Hb1) | (-> & Hst1 & new & Hnew & Hpre & Hstop) ]).
  - (* the first part ran identically *)
    destruct (classify r1') as [x|e] eqn:Hcl.
    + apply classify_ok in Hcl. subst r1'.
      rewrite (mbind_ok _ _ _ _ _ Em), (mbind_ok _ _ _ _ _ Em').
      pose proof (Hf x st1) as H2.
      destruct (f x st1) as [r2 st2]. destruct (f x (unfault st1)) as [r2' st2'].
      cbn [sim] in H2 |- *. destruct H2 as (n0b & Hout2 & Hun2 & H2).
      exists (n0b ++ n0a). change (out (unfault st1)) with (out st1) in Hout1.
      split; [rewrite Hout2, Hout1, app_assoc; reflexivity|]. split; [exact Hun2|].
      destruct H2 as [ (-> & -> & Hc2 & Hb2) | (-> & Hst2 & new & Hnew & Hpre & Hstop) ].
      * left. split; [reflexivity|]. split; [reflexivity|]. split.
        -- rewrite app_length. eapply calls_acct_trans; eauto.
        -- rewrite acc_app, app_length. eapply bytes_acct_trans; eauto.
      * right. split; [reflexivity|]. split.
        -- destruct Hst2 as [(k & Hk1 & Hk2) | (k & Hk1 & Hk2)]; [left | right].
           ++ unfold calls_acct in Hc1. destruct (calls_left st) as [k0|]; [|congruence].
              destruct Hc1 as (k' & Hk' & ->). rewrite Hk' in Hk1. inversion Hk1; subst.
              eexists; split; [reflexivity|]. rewrite app_length. lia.
           ++ unfold bytes_acct in Hb1. destruct (bytes_left st) as [k0|]; [|congruence].
              destruct Hb1 as (k' & Hk' & ->). rewrite Hk' in Hk1. inversion Hk1; subst.
              eexists; split; [reflexivity|]. rewrite acc_app, app_length. lia.
        -- exists (new ++ n0a). split; [rewrite Hnew, Hout1, app_assoc; reflexivity|].
           split; [rewrite !acc_app; apply prefix_app_l; exact Hpre|].
           destruct Hstop as [(Hk & later & ->) | Hk]; [left | right].
           ++ split; [|exists later; rewrite app_assoc; reflexivity].
              unfold calls_acct in Hc1. destruct (calls_left st) as [k0|]; [|congruence].
              destruct Hc1 as (k' & Hk' & ->). rewrite Hk' in Hk. inversion Hk; subst.
              rewrite app_length. reflexivity.
           ++ unfold bytes_acct in Hb1. destruct (bytes_left st) as [k0|]; [|congruence].
              destruct Hb1 as (k' & Hk' & ->). rewrite Hk' in Hk. inversion Hk; subst.
              rewrite acc_app, app_length. f_equal. lia.
    + apply classify_fault in Hcl. subst r1'.
      rewrite (mbind_fault _ _ _ _ _ Em), (mbind_fault _ _ _ _ _ Em').
      cbn [sim]. exists n0a. split; [exact Hout1|]. split; [exact Hun1|].
      left. auto.
  - (* the first part already hit the write error *)
    rewrite (mbind_fault m f st (FErr e_write) st1 Em).
    destruct (classify r1') as [x|e] eqn:Hcl.
    + apply classify_ok in Hcl. subst r1'. rewrite (mbind_ok _ _ _ _ _ Em').
      pose proof (Hf x st1') as H2. rewrite Hun1 in H2.
      destruct (f x st1') as [r2' st2'].
      cbn [sim] in H2 |- *. destruct H2 as (n0b & Hout2 & Hun2 & _).
      exists (n0b ++ n0a). split; [rewrite Hout2, Hout1, app_assoc; reflexivity|]. split; [exact Hun2|].
      right. split; [reflexivity|]. split; [apply starved_more; exact Hst1|].
      exists new. split; [exact Hnew|]. split; [rewrite acc_app; apply prefix_app_r; exact Hpre|].
      destruct Hstop as [(Hk & later & ->) | Hk]; [left | right; exact Hk].
      split; [exact Hk | exists (n0b ++ later); rewrite app_assoc; reflexivity].
    + apply classify_fault in Hcl. subst r1'. rewrite (mbind_fault _ _ _ _ _ Em').
      cbn [sim]. exists n0a. split; [exact Hout1|]. split; [exact Hun1|].
      right. split; [reflexivity|]. split; [exact Hst1|]. exists new. auto.
Qed.

(* a state read that does not look at the writer *)
Lemma wsim_read {X B} (g : mstate -> X) (f : X -> M B) :
  (forall st, g (unfault st) = g st) -> (forall x, wsim (f x)) -> wsim (st <-- get ;;; f (g st)).
Proof.
  intros Hg Hf st.
  change ((st <-- get ;;; f (g st)) st) with (f (g st) st).
  change ((st <-- get ;;; f (g st)) (unfault st)) with (f (g (unfault st)) (unfault st)).
  rewrite Hg. apply Hf.
Qed.

Lemma wsim_write w : wsim (write w).
Proof.
  intros st. pose proof (write_cases w st) as Hf. pose proof (write_cases w (unfault st)) as H0.
  destruct (write w st) as [r st']. destruct (write w (unfault st)) as [r0 st0']. cbn [fst snd] in Hf, H0.
  cbn [sim].
  inversion H0 as [buf rest Hb | Hb Hc | k Hb Hc Hy Hlt | Hb Hc Hfit]; subst r0 st0'.
  - (* into a capture buffer, both runs *)
    change (bufs (unfault st)) with (bufs st) in Hb.
    inversion Hf as [buf' rest' Hb' | Hb' | k' Hb' | Hb']; subst r st'; try congruence.
    rewrite Hb in Hb'. inversion Hb'; subst.
    exists []. split; [reflexivity|]. split; [reflexivity|].
    left. split; [reflexivity|]. split; [reflexivity|]. split; [apply calls_acct_0 | apply bytes_acct_0].
  - discriminate Hc.
  - discriminate Hy.
  - change (bufs (unfault st)) with (bufs st) in Hb.
    exists [w]. split; [reflexivity|]. split; [reflexivity|].
    inversion Hf as [buf' rest' Hb' | Hb' Hc' | k' Hb' Hc' Hy' Hlt' | Hb' Hc' Hfit']; subst r st'; try congruence.
    + (* refused *)
      right. split; [reflexivity|]. split.
      * left. exists 0%nat. split; [exact Hc' | cbn; lia].
      * exists []. split; [reflexivity|]. split; [apply prefix_nil|].
        left. split; [exact Hc' | exists [w]; reflexivity].
    + (* short write *)
      right. split; [reflexivity|]. split.
      * right. exists k'. split; [exact Hy' | rewrite acc_one; exact Hlt'].
      * exists [take (N.to_nat k') w]. split; [reflexivity|]. rewrite !acc_one.
        split; [exists (drop (N.to_nat k') w); symmetry; apply take_drop|].
        right. rewrite Hy', acc_one. f_equal. rewrite take_length; lia.
    + (* accepted *)
      left. split; [reflexivity|]. split; [reflexivity|]. cbn [calls_left bytes_left set_out length]. split.
      * unfold calls_acct. destruct (calls_left st) as [[|n]|]; [congruence | | reflexivity].
        cbn. eexists; split; [reflexivity | lia].
      * unfold bytes_acct. rewrite acc_one. destruct (bytes_left st) as [k|]; [|reflexivity].
        specialize (Hfit' k eq_refl). eexists; split; [reflexivity | lia].
Qed.

Lemma wsim_set k v : wsim (m_set k v).
Proof.
  apply blind_wsim. intros st. rewrite !m_set_eq. change (ctx (unfault st)) with (ctx st).
  destruct (ctx st) as [|f r]; cbn; [auto|]. destruct (f_origin f); cbn; auto.
Qed.
Lemma wsim_lookup k : wsim (m_lookup k).
Proof.
  apply blind_wsim. intros st. rewrite !m_lookup_eq. change (ctx (unfault st)) with (ctx st).
  destruct (sc_lookup (ctx st) k); cbn; auto.
Qed.
Lemma wsim_fresh_list l : wsim (fresh_list l).
Proof. apply blind_wsim. intros st. rewrite !fresh_list_eq. destruct l; cbn; auto. Qed.
Lemma wsim_fresh_list_or_nil l : wsim (fresh_list_or_nil l).
Proof. apply blind_wsim. intros st. rewrite !fresh_list_or_nil_eq. destruct l; cbn; auto. Qed.
Lemma wsim_fresh_map m : wsim (fresh_map m).
Proof. apply blind_wsim. intros st. cbn. auto. Qed.

Lemma wsim_push : wsim m_push.
Proof. apply wsim_modify; intros; cbn; auto. Qed.
Lemma wsim_pop : wsim m_pop.
Proof. apply wsim_modify; intros; cbn; auto. Qed.

Lemma wsim_eval (w : node -> M value) e : wsim (w e) -> wsim (eval w e).
Proof.
  intros Hw. unfold eval.
  apply (wsim_read cur (fun c => v <-- w e ;;; _ <-- modify (fun st => set_cur st c) ;;; ret v)); [reflexivity|].
  intros c. apply wsim_bind; [exact Hw|]. intros v. apply wsim_bind; [|intros; apply wsim_ret].
  apply wsim_modify; intros; cbn; auto.
Qed.

Lemma wsim_block (w : node -> M value) body : wsim (w body) -> wsim (render_block w body).
Proof.
  intros Hw. unfold render_block.
  apply wsim_bind; [apply wsim_modify; intros; cbn; auto|]. intros _.
  apply wsim_bind; [exact Hw|]. intros _.
  apply (wsim_read bufs (fun bs => match bs with
                                   | buf :: rest => _ <-- modify (fun st => set_bufs st rest) ;;; ret (concat_b (rev buf))
                                   | [] => fail e_impossible
                                   end)); [reflexivity|].
  intros [|buf rest]; [apply wsim_fail|].
  apply wsim_bind; [apply wsim_modify; intros; cbn; auto | intros; apply wsim_ret].
Qed.

Lemma wsim_enter (w : node -> M value) callee cd : wsim (w (t_node callee)) -> wsim (call_enter w callee cd).
Proof.
  intros Hw st. rewrite !call_enter_eq. cbn zeta.
  change (entered (unfault st) callee cd) with (unfault (entered st callee cd)).
  pose proof (Hw (entered st callee cd)) as H.
  destruct (w (t_node callee) (entered st callee cd)) as [r st2].
  destruct (w (t_node callee) (unfault (entered st callee cd))) as [r0 st2'].
  cbn [fst snd sim] in H |- *.
  destruct H as (n0 & Hout & Hun & H). exists n0.
  split; [exact Hout|]. split; [rewrite <- Hun at 2; reflexivity|].
  destruct H as [ (-> & -> & Hc & Hb) | (-> & Hst & new & Hnew & Hpre & Hstop) ].
  - left. split; [reflexivity|]. split; [reflexivity|]. split; [exact Hc | exact Hb].
  - right. split; [reflexivity|]. split; [exact Hst|]. exists new. split; [exact Hnew|]. split; [exact Hpre | exact Hstop].
Qed.

Theorem wsim_logic : walker_logic (@wsim) (fun _ _ => True).
Proof.
  constructor.
  - intros A m m' Heq Hm st. rewrite <- !Heq. apply Hm.
  - intros; apply wsim_ret.
  - intros; apply wsim_fail.
  - intros; apply wsim_lift.
  - intros; apply wsim_bind; assumption.
  - intros p. apply wsim_modify; intros; cbn; auto.
  - intros ae. apply wsim_modify; intros; cbn; auto.
  - apply wsim_write.
  - apply wsim_set.
  - apply wsim_lookup.
  - apply wsim_fresh_list.
  - apply wsim_fresh_list_or_nil.
  - apply wsim_fresh_map.
  - intros B f Hf. apply (wsim_read mode f); [reflexivity | exact Hf].
  - intros B f Hf. apply (wsim_read ctx f); [reflexivity | exact Hf].
  - intros m Hm. apply wsim_bind; [apply wsim_push|]. intros _. apply wsim_bind; [exact Hm|]. intros _.
    apply wsim_bind; [apply wsim_pop | intros; apply wsim_ret].
  - apply wsim_eval.
  - apply wsim_block.
  - apply wsim_enter.
Qed.

Theorem walk_wsim cf fuel n : wsim (walk cf fuel n).
Proof. apply (walk_logic cf _ _ wsim_logic). constructor; intros; exact Logic.I. Qed.

From Soy Require Import Spec.Writer.

Lemma prefix_prefix_of p s : prefix p s <-> prefix_of p s.
Proof. split; intros H; exact H. Qed.

Lemma prefix_take p s : prefix_of p s -> p = take (length p) s.
Proof. intros [r ->]. symmetry. apply take_app_len. Qed.

(* the two runs of one render, over any walker that satisfies the simulation: either identical, or the
   writer refused and the render says so *)
Theorem render_with_two_runs wk cf name id data cl bl fid :
  (forall t, wsim (wk t)) ->
  let r := render_with wk cf name id data cl bl fid in
  let r0 := render_with wk cf name id data None None fid in
  (r = r0 /\ ~ refuses cl bl (rr_writes r0)) \/
  (refuses cl bl (rr_writes r0) /\ surfaced (rr_outcome r) /\ prefix_of (accepted r) (accepted r0) /\
   stopped_at cl bl (rr_writes r) (rr_writes r0)).
Proof.
  intros Hwk. cbn zeta. destruct (find_template (r_templates (c_reg cf)) name) as [t|] eqn:Hf.
  2:{ rewrite !(render_with_none _ _ _ _ _ _ _ _ Hf). left. split; [reflexivity|].
      intros [(k & _ & Hk) | (k & _ & Hk)]; cbn in Hk; lia. }
  unfold render_with. rewrite Hf.
  set (st0 := init_state (sc_enter (new_scope id data)) (entry_mode (t_ns_autoescape t)) name cl bl fid).
  change (init_state (sc_enter (new_scope id data)) (entry_mode (t_ns_autoescape t)) name None None fid)
    with (unfault st0).
  pose proof (Hwk t st0) as H.
  destruct (wk t st0) as [r st]. destruct (wk t (unfault st0)) as [r0 st0'].
  cbn [sim] in H. destruct H as (n0 & Hout & _ & H).
  change (out st0) with (@nil bstr) in *. rewrite app_nil_r in Hout.
  change (calls_left st0) with cl in H. change (bytes_left st0) with bl in H.
  unfold accepted. rewrite !finish_writes, Hout.
  destruct H as [ (-> & -> & Hc & Hb) | (-> & Hst & new & Hnew & Hpre & Hstop) ].
  - left. split; [reflexivity|].
    unfold refuses. rewrite rev_length.
    intros [(k & -> & Hk) | (k & -> & Hk)].
    + cbn in Hc. destruct Hc as (k' & _ & ->). lia.
    + cbn in Hb. destruct Hb as (k' & _ & ->). unfold acc in Hk. lia.
  - right. rewrite app_nil_r in Hnew. rewrite Hnew.
    split; [|split; [apply finish_err | split; [exact Hpre|]]].
    + destruct Hst as [(k & Hk1 & Hk2) | (k & Hk1 & Hk2)]; [left | right]; exists k; (split; [exact Hk1|]).
      * rewrite rev_length. exact Hk2.
      * exact Hk2.
    + destruct Hstop as [(Hk & later & ->) | Hk]; [left | right; exact Hk].
      split; [rewrite rev_length; exact Hk | exists (rev later); apply rev_app_distr].
Qed.

Theorem render_two_runs cf fuel name id data cl bl fid :
  let r := render cf fuel name id data cl bl fid in
  let r0 := render cf fuel name id data None None fid in
  (r = r0 /\ ~ refuses cl bl (rr_writes r0)) \/
  (refuses cl bl (rr_writes r0) /\ surfaced (rr_outcome r) /\ prefix_of (accepted r) (accepted r0) /\
   stopped_at cl bl (rr_writes r) (rr_writes r0)).
Proof. rewrite !render_eq. apply render_with_two_runs. intros t. apply walk_wsim. Qed.

(* what follows from that alternative alone, for any family of results against a faulty writer and the
   result against the unfailing one *)
Section TwoRuns.
Variables (faulty : option nat -> option N -> render_result) (free : render_result).
Hypothesis two_runs : forall cl bl,
  (faulty cl bl = free /\ ~ refuses cl bl (rr_writes free)) \/
  (refuses cl bl (rr_writes free) /\ surfaced (rr_outcome (faulty cl bl)) /\
   prefix_of (accepted (faulty cl bl)) (accepted free) /\ stopped_at cl bl (rr_writes (faulty cl bl)) (rr_writes free)).

Lemma refused_surfaces cl bl : refuses cl bl (rr_writes free) -> surfaced (rr_outcome (faulty cl bl)).
Proof. intros Hr. destruct (two_runs cl bl) as [[_ Hn] | (_ & Hs & _)]; [contradiction | exact Hs]. Qed.

Lemma refused_prefix cl bl : prefix_of (accepted (faulty cl bl)) (accepted free).
Proof.
  destruct (two_runs cl bl) as [[-> _] | (_ & _ & Hp & _)]; [|exact Hp].
  exists []. symmetry. apply app_nil_r.
Qed.

Lemma ok_means_all_written cl bl :
  rr_outcome (faulty cl bl) = Ok tt ->
  rr_writes (faulty cl bl) = rr_writes free /\ accepted (faulty cl bl) = accepted free /\ rr_outcome free = Ok tt.
Proof.
  intros Hok. destruct (two_runs cl bl) as [[He _] | (_ & Hs & _)].
  - rewrite <- He. auto.
  - destruct Hs as [Hs | Hs]; rewrite Hs in Hok; discriminate.
Qed.

Lemma not_refused_same cl bl : ~ refuses cl bl (rr_writes free) -> faulty cl bl = free.
Proof. intros Hn. destruct (two_runs cl bl) as [[He _] | (Hr & _)]; [exact He | contradiction]. Qed.

Lemma refused_calls_exact k :
  refuses (Some k) None (rr_writes free) -> rr_writes (faulty (Some k) None) = firstn k (rr_writes free).
Proof.
  intros Hr. destruct (two_runs (Some k) None) as [[_ Hn] | (_ & _ & _ & [(Hk & later & Hl) | Hk])];
    [contradiction | | discriminate].
  injection Hk as Hk. rewrite Hl, firstn_app, <- Hk, Nat.sub_diag, app_nil_r.
  symmetry. apply firstn_all2. rewrite <- Hk. apply Nat.le_refl.
Qed.

Lemma refused_bytes_exact b :
  refuses None (Some b) (rr_writes free) -> accepted (faulty None (Some b)) = take (N.to_nat b) (accepted free).
Proof.
  intros Hr. destruct (two_runs None (Some b)) as [[_ Hn] | (_ & _ & Hp & [(Hk & _) | Hk])];
    [contradiction | discriminate |].
  injection Hk as Hk. etransitivity; [apply prefix_take, Hp|]. f_equal.
  apply Nnat.Nat2N.inj. rewrite Nnat.N2Nat.id. symmetry. exact Hk.
Qed.
End TwoRuns.

Section RenderCorollaries.
Variables (cf : cfg) (fuel : nat) (name : bstr) (id : N) (data : list (bstr * value)) (fid : N).
Let faulty cl bl := render cf fuel name id data cl bl fid.
Let free := render cf fuel name id data None None fid.

Lemma write_fault_surfaces_l cl bl :
  refuses cl bl (rr_writes free) -> surfaced (rr_outcome (faulty cl bl)).
Proof. apply (refused_surfaces faulty free (fun cl bl => render_two_runs cf fuel name id data cl bl fid)). Qed.

Lemma accepted_is_prefix_l cl bl : prefix_of (accepted (faulty cl bl)) (accepted free).
Proof. apply (refused_prefix faulty free (fun cl bl => render_two_runs cf fuel name id data cl bl fid)). Qed.

Lemma nil_means_all_written_l cl bl :
  rr_outcome (faulty cl bl) = Ok tt ->
  rr_writes (faulty cl bl) = rr_writes free /\ accepted (faulty cl bl) = accepted free /\ rr_outcome free = Ok tt.
Proof. apply (ok_means_all_written faulty free (fun cl bl => render_two_runs cf fuel name id data cl bl fid)). Qed.

Lemma sufficient_budget_no_change_l cl bl :
  ~ refuses cl bl (rr_writes free) -> faulty cl bl = free.
Proof. apply (not_refused_same faulty free (fun cl bl => render_two_runs cf fuel name id data cl bl fid)). Qed.

Lemma accepted_exact_calls_l k :
  refuses (Some k) None (rr_writes free) ->
  rr_writes (faulty (Some k) None) = firstn k (rr_writes free).
Proof. apply (refused_calls_exact faulty free (fun cl bl => render_two_runs cf fuel name id data cl bl fid)). Qed.

Lemma accepted_exact_bytes_l b :
  refuses None (Some b) (rr_writes free) ->
  accepted (faulty None (Some b)) = take (N.to_nat b) (accepted free).
Proof. apply (refused_bytes_exact faulty free (fun cl bl => render_two_runs cf fuel name id data cl bl fid)). Qed.
End RenderCorollaries.

(* the pinned escaper (exec.go:693-716 before the repair) drops every write error: a model of
   that loop alone, for the record of defect I4 *)
Fixpoint write_all_unchecked (ws : list bstr) : M unit :=
  match ws with
  | [] => ret tt
  | w :: r => fun st => write_all_unchecked r (snd (write w st))
  end.

Lemma pinned_escaper_drops_errors :
  exists ws st, calls_left st = Some O /\ bufs st = [] /\ ws <> [] /\
                fst (write_all_unchecked ws st) = Ok tt /\ fst (write_all ws st) = Err e_write.
Proof.
  exists [[120]], (init_state [] 1 [] (Some O) None 2).
  repeat split; try discriminate; reflexivity.
Qed.
