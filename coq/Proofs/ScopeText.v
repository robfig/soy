(* C02, text-producing commands at the token level: a special-character command
   becomes a raw-text node holding the character the language defines, {literal}
   one holding exactly its body, a run of text tokens one holding the line-joined
   text (C15's normalize) -- and the walker writes a raw-text node's bytes as they
   are. *)
From Coq Require Import Lia.
From Soy Require Import Model.Bytes Model.Values Model.Outcome Model.Ast Model.Token Generated.Tables Model.RawText
  Model.Parser Model.Interp Spec.Text Spec.Cmd Spec.CmdText Proofs.RawTextProofs Proofs.InterpLogic Proofs.ScopeRel Proofs.ScopeNames Proofs.ParserBase.
Open Scope N_scope.

(* the parser is about to read [ts] (nothing backed up) *)
Definition reads (s : cst) (ts rest : list tok) : Prop :=
  p_peek (c_p s) = 0%nat /\ p_rest (c_p s) = ts ++ rest.

Definition tk (ty p : N) (v : bstr) : tok := {| t_typ := ty; t_pos := p; t_val := v |}.

(* the lexer's keyword table sends each special-character command of the language to an item type
   whose entry in the parser's table is the character the language defines; there are no others *)
Theorem special_char_tables :
  Forall (fun kc => exists ty, assoc_s (fst kc) builtin_idents = Some ty /\
                               assoc ty parser_special_chars = Some (snd kc)) special_char_commands /\
  length parser_special_chars = length special_char_commands.
Proof. split; [|reflexivity]. repeat constructor; eexists; split; vm_compute; reflexivity. Qed.

Section Tags.
Variable inlen : N.
Variable lexq : bstr -> list tok.
Variable unq : bstr -> option bstr.
Variable pexpr : nat -> N -> pst -> presult node.
Variable efuel : list tok -> nat.
Variable pe : N -> cst -> cres node.
Variable w : list N -> cst -> cres node.
Variable lf : nat.

Lemma special_types ty txt : assoc ty parser_special_chars = Some txt ->
  In (ty, txt) [(79, [32]); (80, []); (81, [9]); (82, [13]); (83, [10]); (84, [123]); (85, [125])].
Proof. apply assoc_In. Qed.

(* {sp} {nil} {\n} {\r} {\t} {lb} {rb}: after "{", the command token and "}" *)
Theorem special_char_tag s ty p v prd vrd rest txt :
  assoc ty parser_special_chars = Some txt ->
  reads s [tk ty p v; tk pit_RightDelim prd vrd] rest ->
  exists s', begin_tag inlen lexq unq pexpr efuel pe w lf s = COk (Some (NRawText p txt)) s' /\
             reads s' [] rest /\ same_names s s'.
Proof.
  intros Ha [Hp Hr]. destruct s as [[r t0 t1 pk rc] ns al im sc]. cbn in Hp, Hr. subst pk r.
  apply special_types in Ha. cbn [In] in Ha.
  repeat (destruct Ha as [Ha|Ha]; [injection Ha as <- <-; eexists; split; [lazy; reflexivity | split; split; reflexivity]|]).
  destruct Ha.
Qed.

(* {literal}body{/literal}: the tokens are "literal" "}" Text(body) "{" "/literal" "}" *)
Theorem literal_tag s p v p1 v1 pb body p2 v2 p3 v3 p4 v4 rest :
  reads s [tk pit_Literal p v; tk pit_RightDelim p1 v1; tk pit_Text pb body; tk pit_LeftDelim p2 v2;
           tk pit_LiteralEnd p3 v3; tk pit_RightDelim p4 v4] rest ->
  exists s', begin_tag inlen lexq unq pexpr efuel pe w lf s = COk (Some (NRawText pb (literal_text body))) s' /\
             reads s' [] rest /\ same_names s s'.
Proof.
  intros [Hp Hr]. destruct s as [[r t0 t1 pk rc] ns al im sc]. cbn in Hp, Hr. subst pk r.
  eexists. split; [lazy; reflexivity | split; split; reflexivity].
Qed.
End Tags.

(* a run of text tokens: one raw-text node holding the line-joined text *)

Definition text_toks (more : list (N * bstr)) : list tok := map (fun pv => tk pit_Text (fst pv) (snd pv)) more.

Lemma c_next_reads s t rest : reads s [t] rest ->
  exists s', c_next s = COk t s' /\ reads s' [] rest /\ p_tok0 (c_p s') = t /\ same_names s s'.
Proof.
  intros [Hp Hr]. destruct s as [[r t0 t1 pk rc] ns al im sc]. cbn in Hp, Hr. subst pk r.
  eexists. split; [reflexivity|]. repeat split.
Qed.

Lemma c_next_backup s : p_peek (c_p s) = 0%nat -> c_next (c_backup s) = COk (p_tok0 (c_p s)) s.
Proof. destruct s as [[r t0 t1 pk rc] ns al im sc]. cbn. intros ->. reflexivity. Qed.

(* reading the next token, backing it up and starting the run is starting the run *)
Lemma text_run_after_backup f acc s ts rest : reads s ts rest -> ts <> [] ->
  (do (t2, s2) <- c_next s; text_run (S f) acc (c_backup s2)) = text_run (S f) acc s.
Proof.
  intros [Hp Hr] Hne. destruct ts as [|t ts]; [contradiction|].
  destruct (c_next_reads s t (ts ++ rest) (conj Hp Hr)) as (s1 & E & [H1 _] & H2 & _).
  cbn [text_run]. rewrite E. cbn [cbind]. rewrite (c_next_backup s1 H1), H2. reflexivity.
Qed.

Lemma text_run_reads : forall more f acc s nx rest,
  (length more < f)%nat -> reads s (text_toks more ++ [nx]) rest -> tis nx pit_Text = false ->
  exists s', text_run f acc s = COk (acc ++ concat (map snd more), nx) s' /\
             reads s' [] rest /\ p_tok0 (c_p s') = nx /\ same_names s s'.
Proof.
  induction more as [|[p1 v1] more IH]; intros f acc s nx rest Hf Hr Hnx; (destruct f as [|f]; [cbn in Hf; lia|]); cbn [text_run].
  - cbn [text_toks map app] in Hr. destruct (c_next_reads s nx rest Hr) as (s1 & -> & H1 & H2 & H3).
    cbn [cbind]. rewrite Hnx. exists s1. cbn [map concat]. rewrite app_nil_r.
    split; [reflexivity|]. split; [exact H1|]. split; [exact H2 | exact H3].
  - cbn [text_toks map app fst snd] in Hr. fold (text_toks more) in Hr.
    assert (Hr1 : reads s [tk pit_Text p1 v1] ((text_toks more ++ [nx]) ++ rest)).
    { destruct Hr as [Ha Hb]. split; [exact Ha|]. rewrite Hb. cbn [app]. rewrite <- app_assoc. reflexivity. }
    destruct (c_next_reads s _ _ Hr1) as (s1 & -> & H1 & H2 & H3).
    cbn [cbind]. change (tis (tk pit_Text p1 v1) pit_Text) with true. cbv iota. cbn [t_val tk].
    destruct (IH f (acc ++ v1) s1 nx rest ltac:(cbn in Hf; lia) H1 Hnx) as (s2 & -> & K1 & K2 & K3).
    exists s2. cbn [map concat snd]. rewrite <- app_assoc.
    split; [reflexivity|]. split; [exact K1|]. split; [exact K2 | exact (same_names_trans _ _ _ H3 K3)].
Qed.

Section TextRun.
Variable inlen : N.
Variable lexq : bstr -> list tok.
Variable unq : bstr -> option bstr.
Variable pexpr : nat -> N -> pst -> presult node.
Variable efuel : list tok -> nat.
Variable pe : N -> cst -> cres node.
Variable w : list N -> cst -> cres node.

(* the text token (p0, v0) has just been read; the text tokens [more] and then the other token [nx] follow *)
Theorem text_run_node lf until s p0 v0 more nx rest :
  (length more + 1 < lf)%nat -> one_of pit_Text until = false ->
  reads s (text_toks more ++ [nx]) rest -> tis nx pit_Text = false ->
  let joined := normalize_with is_tight_joiner false (tis nx pit_Comment) (v0 ++ concat (map snd more)) in
  exists s',
    text_or_tag inlen lexq unq pexpr efuel pe w lf (tk pit_Text p0 v0) until s =
      COk (match joined with [] => None | _ => Some (NRawText p0 joined) end, false) s' /\
    p_peek (c_p s') = 1%nat /\ p_tok0 (c_p s') = nx /\ p_rest (c_p s') = rest /\ same_names s s'.
Proof.
  intros Hlf Hu Hr Hnx joined. unfold text_or_tag.
  destruct lf as [|lf0]; [lia|]. cbn [skip_comments].
  change (tis (tk pit_Text p0 v0) pit_Comment) with false. cbv iota. cbn [cbind].
  change (t_typ (tk pit_Text p0 v0)) with pit_Text. rewrite Hu.
  change (tis (tk pit_Text p0 v0) pit_LeftDelim) with false. cbn [andb].
  change (tis (tk pit_Text p0 v0) pit_Text) with true. cbv iota.
  destruct (text_run_reads more (S lf0) (t_val (tk pit_Text p0 v0)) s nx rest ltac:(lia) Hr Hnx) as (s4 & E & K1 & K2 & K3).
  rewrite <- (text_run_after_backup lf0 (t_val (tk pit_Text p0 v0)) s _ rest Hr) in E by (destruct more; discriminate).
  rewrite <- cbind_assoc, E. cbn [cbind fst snd t_val tk]. rewrite rawtext_run_general. fold joined.
  exists (c_backup s4). destruct K1 as [Kp Kr]. destruct K3 as [Ka Kb].
  split; [destruct joined; reflexivity|]. cbn. rewrite Kp, Kr. repeat split; assumption.
Qed.
End TextRun.

(* and the walker writes the bytes of a raw-text node as they are: one Write call with exactly them *)
Theorem rawtext_written_exactly cf f p t st :
  good st -> bufs st = [] ->
  exists st', walk cf (S f) (NRawText p t) st = (Ok VUndef, st') /\ out st' = t :: out st /\
              bufs st' = [] /\ ctx st' = ctx st /\ mode st' = mode st.
Proof.
  intros [Hc Hb] Hbuf. rewrite InterpLogic.walk_S. unfold walk_body. cbn [walk_node pos_of].
  unfold mbind at 1. unfold modify at 1. cbn [fst snd].
  unfold mbind, write. cbn [bufs set_cur calls_left bytes_left]. rewrite Hbuf, Hc, Hb.
  eexists. split; [reflexivity|]. cbn. rewrite Hbuf. repeat split; reflexivity.
Qed.
