(* C13: every walker of Model/Compile.v is extensional in its key order and lookup function;
   hence the repaired pipeline (sort after the loop, C10 for the placeholder names) does not
   depend on the order in which Go ranges over its maps.  File permutations: Proofs/CompilePermProofs.v. *)
From Coq Require Import Permutation.
From Soy Require Import Model.Bytes Model.Num Model.Values Model.Outcome Model.Ast Model.MsgId Model.Compile
  Model.JsGen
  Generated.Tables Spec.Determinism Proofs.ValueProofs Proofs.MsgIdProofs.
Open Scope N_scope.

Definition kext (ko ko' : korder) : Prop := forall l, ko l = ko' l.

Lemma perm_order_is_perm o : perm_order o <-> is_perm o.
Proof. reflexivity. Qed.

(* sort after the loop: the order of the loop is forgotten *)
Lemma sorted_after_kext o o' : perm_order o -> perm_order o' -> kext (sorted_after o) (sorted_after o').
Proof.
  intros H H' l. unfold sorted_after. apply sort_strings_perm.
  eapply Permutation_trans; [apply H | apply Permutation_sym, H'].
Qed.

Lemma map_values_ext ko ko' items : kext ko ko' -> map_values ko items = map_values ko' items.
Proof. intros H. unfold map_values. rewrite H. reflexivity. Qed.

Lemma children_ext ko ko' n : kext ko ko' -> children ko n = children ko' n.
Proof. intros H. destruct n; cbn [children]; try reflexivity. apply map_values_ext, H. Qed.

Section CheckerExt.
  Variables ko ko' : korder.
  Variables lk lk' : bstr -> option template.
  Variable params : list bstr.
  Hypothesis Hko : kext ko ko'.
  Hypothesis Hlk : forall n, lk n = lk' n.

  Lemma check_call_ext st p name alldata data ps :
    check_call lk params st p name alldata data ps = check_call lk' params st p name alldata data ps.
  Proof. unfold check_call. rewrite Hlk. reflexivity. Qed.

  Lemma check_seq_ext w w' l : (forall st n, w st n = w' st n) -> forall st, check_seq w st l = check_seq w' st l.
  Proof.
    intros Hw. induction l as [|n r IH]; intros st; cbn [check_seq]; [reflexivity|].
    rewrite Hw. destruct (w' st n); [reflexivity | apply IH].
  Qed.

  Lemma check_block_ext w w' st n : (forall st n, w st n = w' st n) ->
    check_block ko w st n = check_block ko' w' st n.
  Proof.
    intros Hw. unfold check_block. rewrite (children_ext ko ko' n Hko), (check_seq_ext w w' _ Hw). reflexivity.
  Qed.

  Lemma check_body_ext w w' st n : (forall st n, w st n = w' st n) ->
    check_body ko lk params w st n = check_body ko' lk' params w' st n.
  Proof.
    intros Hw. unfold check_body.
    destruct n;
      repeat first [ reflexivity
                   | apply (check_block_ext _ _ _ _ Hw)
                   | rewrite check_call_ext
                   | rewrite (check_block_ext w w' _ _ Hw)
                   | rewrite Hw
                   | match goal with |- match ?x with _ => _ end = match ?x with _ => _ end => destruct x end ].
  Qed.

  Lemma check_node_ext fuel : forall st n, check_node ko lk params fuel st n = check_node ko' lk' params fuel st n.
  Proof.
    induction fuel as [|f IH]; intros st n; cbn [check_node]; [reflexivity|].
    apply check_body_ext, IH.
  Qed.
End CheckerExt.

Lemma check_template_ext ko ko' lk lk' t :
  kext ko ko' -> (forall n, lk n = lk' n) -> check_template ko lk t = check_template ko' lk' t.
Proof. intros Hko Hlk. unfold check_template. rewrite (check_node_ext ko ko' lk lk' _ Hko Hlk). reflexivity. Qed.

Lemma first_failure_ext {E} (f g : template -> option E) ts :
  (forall t, In t ts -> f t = g t) -> first_failure f ts = first_failure g ts.
Proof.
  induction ts as [|t r IH]; intros H; cbn [first_failure]; [reflexivity|].
  rewrite (H t (or_introl eq_refl)). destruct (g t); [reflexivity|]. apply IH. intros x Hx. apply H. right. exact Hx.
Qed.

Section GlobalsExt.
  Variables ko ko' : korder.
  Variable globals : gmap.
  Hypothesis Hko : kext ko ko'.

  Lemma globals_seq_ext w w' l : (forall n, w n = w' n) -> globals_seq w l = globals_seq w' l.
  Proof.
    intros Hw. induction l as [|n r IH]; cbn [globals_seq]; [reflexivity|]. rewrite Hw, IH. reflexivity.
  Qed.
  Lemma globals_node_ext fuel : forall n, globals_node ko globals fuel n = globals_node ko' globals fuel n.
  Proof.
    induction fuel as [|f IH]; intros n; cbn [globals_node]; [reflexivity|].
    unfold globals_body. destruct n; try reflexivity; rewrite (children_ext ko ko' _ Hko); apply globals_seq_ext, IH.
  Qed.
End GlobalsExt.

Lemma set_globals_template_ext ko ko' g t : kext ko ko' -> set_globals_template ko g t = set_globals_template ko' g t.
Proof. intros H. apply globals_node_ext, H. Qed.

Definition phext (pho pho' : korder) : Prop := forall body, msg_named pho body = msg_named pho' body.

Lemma perm_order_phext o o' : perm_order o -> perm_order o' -> phext o o'.
Proof. intros H H' body. apply names_order_independent; assumption. Qed.

Section MsgsExt.
  Variable node_string : node -> bstr.
  Variables ko ko' pho pho' : korder.
  Hypothesis Hko : kext ko ko'.
  Hypothesis Hph : phext pho pho'.

  Lemma process_msg_ext meaning desc body :
    process_msg node_string pho meaning desc body = process_msg node_string pho' meaning desc body.
  Proof.
    unfold process_msg. destruct (msg_of_source meaning desc _); cbn [bind]; try reflexivity. rewrite Hph. reflexivity.
  Qed.
  Lemma msgs_seq_ext w w' l : (forall n, w n = w' n) -> msgs_seq w l = msgs_seq w' l.
  Proof. intros Hw. induction l as [|n r IH]; cbn [msgs_seq]; [reflexivity|]. rewrite Hw, IH. reflexivity. Qed.
  Lemma msgs_node_ext fuel : forall n, msgs_node node_string ko pho fuel n = msgs_node node_string ko' pho' fuel n.
  Proof.
    induction fuel as [|f IH]; intros n; cbn [msgs_node]; [reflexivity|].
    unfold msgs_body. destruct n; try reflexivity; try (rewrite (children_ext ko ko' _ Hko); apply msgs_seq_ext, IH).
    rewrite process_msg_ext. reflexivity.
  Qed.
End MsgsExt.

Lemma template_msgs_ext ns ko ko' pho pho' t :
  kext ko ko' -> phext pho pho' -> template_msgs ns ko pho t = template_msgs ns ko' pho' t.
Proof. intros H H'. apply msgs_node_ext; assumption. Qed.

Lemma bundle_of_globals_ext ko ko' calls : kext ko ko' -> bundle_of_globals ko calls = bundle_of_globals ko' calls.
Proof.
  intros H. unfold bundle_of_globals. generalize {| bg_map := []; bg_err := None |}.
  induction calls as [|m r IH]; intros b0; cbn [fold_left]; [reflexivity|].
  unfold add_globals_map at 2 4. rewrite H. apply IH.
Qed.

Definition orders_ext (o o' : orders) : Prop :=
  kext (o_globals o) (o_globals o') /\ kext (o_children o) (o_children o') /\ phext (o_ph o) (o_ph o') /\
  kext (o_imports o) (o_imports o').

Lemma compile_gen_ext ns o o' calls srcs : orders_ext o o' -> compile_gen ns o calls srcs = compile_gen ns o' calls srcs.
Proof.
  intros (Hg & Hc & Hp & _). unfold compile_gen.
  rewrite (bundle_of_globals_ext _ _ calls Hg).
  destruct (bg_err (bundle_of_globals (o_globals o') calls)) as [[name existing]|]; [reflexivity|].
  destruct (add_all_files empty_creg srcs) as [r|e]; [|reflexivity].
  rewrite (first_failure_ext (check_template (o_children o) _) (check_template (o_children o') (find_template (r_templates (cr_reg r)))));
    [|intros t _; apply check_template_ext; [exact Hc | reflexivity]].
  destruct (first_failure (check_template (o_children o') _) _) as [[name e]|]; [reflexivity|].
  rewrite (first_failure_ext (set_globals_template (o_children o) _) (set_globals_template (o_children o') (bg_map (bundle_of_globals (o_globals o') calls))));
    [|intros t _; apply set_globals_template_ext, Hc].
  destruct (first_failure (set_globals_template (o_children o') _) _) as [[name e]|]; [reflexivity|].
  f_equal. f_equal. apply map_ext. intros t. f_equal. apply template_msgs_ext; assumption.
Qed.

Lemma import_block_ext ko ko' called infile : kext ko ko' -> import_block ko called infile = import_block ko' called infile.
Proof. intros H. unfold import_block. destruct called; [reflexivity|]. rewrite H. reflexivity. Qed.

Lemma repaired_orders_ext o o' : perm_orders o -> perm_orders o' -> orders_ext (repaired_orders o) (repaired_orders o').
Proof.
  intros (Hg & Hc & Hp & Hi) (Hg' & Hc' & Hp' & Hi'). unfold orders_ext, repaired_orders; cbn.
  repeat split; try (apply sorted_after_kext; assumption). apply perm_order_phext; assumption.
Qed.

(* Whatever order Go ranges over its maps in, the compile result -- accept or
   reject, the error with its unit and names, the registry, the globals, every
   message id and placeholder name -- and the import block of every file are the same. *)
Theorem compile_oracle_independent ns o o' calls srcs :
  perm_orders o -> perm_orders o' -> compile ns o calls srcs = compile ns o' calls srcs.
Proof. intros H H'. apply compile_gen_ext, repaired_orders_ext; assumption. Qed.

(* the import block of the repaired tree: sorted after the range *)
Theorem import_block_oracle_independent o o' called infile :
  perm_order o -> perm_order o' -> import_block (sorted_after o) called infile = import_block (sorted_after o') called infile.
Proof. intros H H'. apply import_block_ext, sorted_after_kext; assumption. Qed.

(* The whole generated file (Model/JsGen.v, byte-exact model of soyjs.Write for
   both formatters, with or without a message bundle): the one Go map that is
   ranged over while generating is funcsCalled, its keys are sorted before the
   import lines are written, and nothing else of the generator looks at the
   order (the walk is literally the same term for both orders: by conversion). *)
Theorem gen_file_order_independent fmt msgs ord ord' fuel name body :
  perm_order ord -> perm_order ord' ->
  gen_file {| o_fmt := fmt; o_msgs := msgs; o_order := ord |} fuel name body =
  gen_file {| o_fmt := fmt; o_msgs := msgs; o_order := ord' |} fuel name body.
Proof.
  intros H H'. unfold gen_file.
  change (visit_file {| o_fmt := fmt; o_msgs := msgs; o_order := ord' |} fuel name body)
    with (visit_file {| o_fmt := fmt; o_msgs := msgs; o_order := ord |} fuel name body).
  destruct (visit_file _ fuel name body jinit_state) as [[u st]| | | | |]; try reflexivity.
  destruct (j_called st) as [|c r]; [reflexivity|]. cbn [o_order].
  match goal with |- context [sort_strings (ord ?l)] =>
    rewrite (sort_strings_perm (ord l) (ord' l)); [reflexivity|] end.
  eapply Permutation_trans; [apply H | apply Permutation_sym, H'].
Qed.
