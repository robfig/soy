(* C15, template level: scanner model and parser model composed on a whole minimal file
   {template .name} body {/template}  (Spec/TextTemplate.v). *)
From Soy Require Import Model.Bytes Model.Outcome Model.Ast Model.Token Model.Parser Model.Lexer Generated.Tables Spec.Text Spec.TextBody
  Spec.TextMix Spec.TextTemplate Proofs.RawTextProofs Proofs.LexerProofs Proofs.LexTokens Proofs.LexPrintTop Proofs.LexBodyText
  Proofs.LexBodyTop Proofs.LexBodySeg Proofs.LexBodyMixMain Proofs.LexTemplate Proofs.ParseBodyText Proofs.ParseBodyMix Proofs.ParseTemplate
  Proofs.ParserProofs Proofs.LexParseBridge Proofs.PrintCmdFile.
From Coq Require Import ZifyBool Lia.
Open Scope N_scope.

Lemma tpl_name_wf_ok name : tpl_name_wf name -> tpl_name_ok name.
Proof.
  intros [H1 H2]. split.
  - rewrite forallb_forall in *. intros c Hc. specialize (H1 c Hc). unfold alnum_b, letter_b, digit_b. lia.
  - destruct name as [|c r]; [reflexivity|]. unfold head_digit, digit_b. lia.
Qed.

Lemma pshape_empty its : pshape [[]] its -> its = [].
Proof.
  intros H. inversion H as [x txt Htx|x x' txt c rest items Htx Hx Hc Hsh]; subst.
  - unfold is_text_of in Htx. cbn in Htx. exact Htx.
  - inversion Hsh.
Qed.

Section Main.
Variable uni_letter uni_digit : Z -> bool.
Hypothesis letter_ascii : forall c, (c < 128)%N -> uni_letter (Z.of_N c) = ((65 <=? c) && (c <=? 90) || (97 <=? c) && (c <=? 122))%N.
Hypothesis digit_ascii : forall c, (c < 128)%N -> uni_digit (Z.of_N c) = digit_b c.
Hypothesis letter_eof : uni_letter (-1)%Z = false.
Hypothesis digit_eof : uni_digit (-1)%Z = false.

(* a run of the state machine from the initial state to LDone is the run of lex *)
Lemma lex_items_of_steps txt k l' : steps uni_letter uni_digit txt 0 k LText lex_init = Ok (LDone, l') ->
  lex_items uni_letter uni_digit (lex_budget txt) false txt = Ok (rev (l_out l')).
Proof.
  intros Hst. destruct (lex_total_linear uni_letter uni_digit letter_eof digit_eof 0%Z ltac:(lia) false txt) as (lf & Hr & _).
  pose proof Hr as Hr'. rewrite lex_run_at_file in Hr'.
  rewrite (run_unique uni_letter uni_digit txt 0 (lex_budget txt) k LText lex_init lf l' Hr' Hst) in Hr.
  unfold lex_items, lex_run. rewrite Hr. reflexivity.
Qed.

(* lex(name, {template .name} B {/template}), given what the scanner does on the body B in front of a tag: it
   sends items [body] of which [P] holds and stops in front of the tag *)
Lemma lex_template_around (P : list tok -> Prop) name B :
  tpl_name_ok name ->
  (forall inp l, span inp l [] (B ++ tpl_close) -> l_dd l = false -> pwof 0 l = false ->
     exists k l' body, steps uni_letter uni_digit inp 0 k LText l = Ok (LLeftDelim, l') /\ span inp l' [] tpl_close /\
       l_out l' = rev body ++ l_out l /\ P body) ->
  exists ld0 tk di rd0 body ld2 te rd2 e,
    lex_items uni_letter uni_digit (lex_budget (tpl_open_src name ++ B ++ tpl_close_src)) false (tpl_open_src name ++ B ++ tpl_close_src)
      = Ok (ld0 :: tk :: di :: rd0 :: body ++ [ld2; te; rd2; e]) /\
    t_typ ld0 = itemLeftDelim /\ t_typ tk = itemTemplate /\ t_typ di = itemDotIdent /\ t_val di = 46 :: name /\ t_typ rd0 = itemRightDelim /\
    t_typ ld2 = itemLeftDelim /\ t_typ te = itemTemplateEnd /\ t_typ rd2 = itemRightDelim /\ t_typ e = itemEOF /\ P body.
Proof.
  intros Hname Hbody. change (tpl_open_src name) with (tpl_open name). change tpl_close_src with tpl_close.
  remember (tpl_open name ++ B ++ tpl_close) as txt eqn:Etxt.
  assert (Hs0 : span txt lex_init [] ([] ++ txt)).
  { unfold span, lex_init. cbn [l_start l_pos length app]. repeat split; try lia. }
  assert (Htl0 : tag_or_end txt) by (right; rewrite Etxt; eexists; reflexivity).
  (* lexText in front of the template tag: nothing pending *)
  destruct (lex_stretch uni_letter uni_digit letter_ascii digit_ascii letter_eof digit_eof txt 0 [] (le_n _) lex_init [[]] txt Hs0
              ltac:(constructor) Htl0 eq_refl ltac:(intros _; reflexivity)) as (k1 & l1 & its1 & st1 & Hst1 & Hsh1 & Hdd1 & Hend1).
  destruct Hend1 as [(A & _)|(_ & -> & Ho1 & Hs1)]; [rewrite Etxt in A; discriminate A|].
  rewrite (pshape_empty _ Hsh1) in Ho1. cbn [rev app] in Ho1.
  assert (Hs1' : span txt l1 [] (tpl_open name ++ B ++ tpl_close)) by (rewrite <- Etxt; exact Hs1).
  destruct (lex_tpl_open uni_letter uni_digit letter_ascii digit_ascii letter_eof digit_eof txt l1 name _ Hname Hs1')
    as (k2 & l2 & ld0 & tk & di & rd0 & Hst2 & Hs2 & Ho2 & Hld0 & Htk & Hdi & Hdiv & Hrd0 & Hla2 & Hv2 & Hdd2).
  destruct (Hbody txt l2 Hs2 Hdd2 ltac:(unfold pwof; rewrite Hla2, Hv2; reflexivity)) as (k3 & l3 & body & Hst3 & Hs3 & Ho3 & HP).
  rewrite <- (app_nil_r tpl_close) in Hs3.
  destruct (lex_tpl_close uni_letter uni_digit letter_ascii digit_ascii letter_eof digit_eof txt l3 [] Hs3)
    as (k4 & l4 & ld2 & te & rd2 & Hst4 & Hs4 & Ho4 & Hld2 & Hte & Hrd2 & Hdd4).
  (* lexText at the end of the input *)
  destruct (lex_stretch uni_letter uni_digit letter_ascii digit_ascii letter_eof digit_eof txt 0 [] (le_n _) l4 [[]] [] Hs4
              ltac:(constructor) (or_introl eq_refl) eq_refl ltac:(intros H; congruence)) as (k5 & l5 & its5 & st5 & Hst5 & Hsh5 & Hdd5 & Hend5).
  destruct Hend5 as [(_ & -> & e & He & Ho5)|(A & _)]; [|congruence].
  rewrite (pshape_empty _ Hsh5) in Ho5. cbn [rev app] in Ho5.
  exists ld0, tk, di, rd0, body, ld2, te, rd2, e. split; [|repeat (split; [assumption|]); exact HP].
  rewrite (lex_items_of_steps txt (k1 + (k2 + (k3 + (k4 + k5)))) l5).
  - rewrite Ho5, Ho4, Ho3, Ho2, Ho1. cbn [lex_init l_out rev]. rewrite rev_app_distr, rev_involutive. cbn [rev app]. rewrite <- !app_assoc. reflexivity.
  - rewrite (steps_app _ _ _ _ k1 _ _ _ _ _ Hst1), (steps_app _ _ _ _ k2 _ _ _ _ _ Hst2), (steps_app _ _ _ _ k3 _ _ _ _ _ Hst3),
      (steps_app _ _ _ _ k4 _ _ _ _ _ Hst4). exact Hst5.
Qed.

Theorem lex_template_file name T0 rest pcs rp :
  tpl_name_ok name -> mix_tpl_ok T0 rest -> pieces MText false [] T0 = Some pcs -> rest_pieces rest rp ->
  exists ld0 tk di rd0 body ld2 te rd2 e,
    lex_items uni_letter uni_digit (lex_budget (tpl_file name T0 rest)) false (tpl_file name T0 rest)
      = Ok (ld0 :: tk :: di :: rd0 :: body ++ [ld2; te; rd2; e]) /\
    t_typ ld0 = itemLeftDelim /\ t_typ tk = itemTemplate /\ t_typ di = itemDotIdent /\ t_val di = 46 :: name /\ t_typ rd0 = itemRightDelim /\
    t_typ ld2 = itemLeftDelim /\ t_typ te = itemTemplateEnd /\ t_typ rd2 = itemRightDelim /\ t_typ e = itemEOF /\
    forall term, mshapeT term pcs rp (body ++ term).
Proof.
  intros Hname [Hok0 Hokr] Hpc Hrp.
  apply (lex_template_around (fun body => forall term, mshapeT term pcs rp (body ++ term)) name (body_src T0 rest) Hname).
  intros inp l Hs Hdd Hpw. unfold body_src in Hs. rewrite <- app_assoc in Hs. rewrite Forall_forall in Hokr.
  apply (lex_mix_run_tl uni_letter uni_digit letter_ascii digit_ascii letter_eof digit_eof inp rest rp T0 pcs l tpl_close
           ltac:(discriminate) ltac:(right; eexists; reflexivity) Hs Hdd ltac:(rewrite Hpw; exact Hok0) ltac:(rewrite Hpw; exact Hpc) Hokr Hrp).
Qed.

Variable lexq : bstr -> list tok.
Variable unq : bstr -> option bstr.
Hypothesis Hlexq : lexq_wf lexq.

(* body_text_spec for the body of a template, as a statement about a whole file *)
Theorem template_body_impl_spec name T0 rest out : tpl_name_wf name -> mix_tpl_ok T0 rest -> mix_tpl_out T0 rest = Some out ->
  exists items pos tp nm ae pv bpos nodes st,
    lex_items uni_letter uni_digit (lex_budget (tpl_file name T0 rest)) false (tpl_file name T0 rest) = Ok items /\
    po_result (soy_file (N.of_nat (length (tpl_file name T0 rest))) lexq unq items)
      = POk (NList pos [NTemplate tp nm (NList bpos nodes) ae pv]) st /\
    Forall is_raw nodes /\ concat (map raw_text_of nodes) = out.
Proof.
  intros Hname Hok Hout. unfold mix_tpl_out, body_text in Hout.
  destruct (pieces MText false [] T0) as [pcs|] eqn:Hp; [|discriminate].
  destruct (mix_rest_out rest) as [out'|] eqn:Hr; [|discriminate]. cbn [app_opt] in Hout. injection Hout as <-.
  destruct (rest_out_pieces rest out' Hr) as (rp & Hrp & Ho).
  destruct (lex_template_file name T0 rest pcs rp (tpl_name_wf_ok _ Hname) Hok Hp Hrp)
    as (ld0 & tk & di & rd0 & body & ld2 & te & rd2 & e & Hlex & A1 & A2 & A3 & _ & A4 & A5 & A6 & A7 & A8 & Hsh).
  set (items := ld0 :: tk :: di :: rd0 :: body ++ [ld2; te; rd2; e]) in *.
  pose proof (lex_items_wf _ _ letter_eof digit_eof _ _ Hlex) as Hw.
  destruct Hok as [[Hpl0 _] Hokr].
  assert (Hnr : Forall (fun q : bstr * list bstr => Forall no_nul (snd q)) rp).
  { apply (rest_pieces_no_nul rest rp); [|exact Hrp]. eapply Forall_impl; [|exact Hokr]. intros sg (_ & [Hpl _]). exact Hpl. }
  destruct (template_file_nodes (N.of_nat (length (tpl_file name T0 rest))) lexq unq ld0 tk di rd0 body ld2 te rd2 e pcs rp
              A1 A2 A3 A4 Hsh A5 A6 A7 A8 (pieces_no_nul _ _ _ Hpl0 Hp) Hnr) as (F & pos & tp & nm & ae & pv & bpos & nodes & s' & Hrun & Hraw & Hcat).
  exists items, pos, tp, nm, ae, pv, bpos, nodes, (c_p s'). split; [exact Hlex|]. split.
  - exact (soy_file_of_big_fuel _ lexq unq items F _ s' Hlexq Hw Hrun).
  - split; [exact Hraw|]. rewrite Hcat, Ho. reflexivity.
Qed.

End Main.
