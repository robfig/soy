(* C14, token grammar, bytes: what the recogniser's mode says about the next token, what the first byte of a text says
   about its first token, and the discipline [tail_ok] that makes a piece of output separable from any continuation the
   grammar accepts ([sep_from_tail]). *)
From Soy Require Import Model.Bytes Model.JsGen Spec.JsSyntax Spec.JsShape Proofs.JsWfSplitBase Proofs.JsWfSplitNum Proofs.JsWfSplit.
From Coq Require Import ZifyBool Lia.
Open Scope N_scope.

Definition is_word (t : jstoken) : bool := match t with TId _ | TKw _ _ | TNum _ => true | _ => false end.

Lemma word_free_ok md m s t r : word_free m = true -> js_step md m s t = Some r -> is_word t = false.
Proof.
  intros W H. destruct t; try reflexivity; exfalso; destruct m; try discriminate W; cbn in H; try discriminate H;
    destruct ps as [|[t'| |] ps]; try discriminate W; try (destruct t'; try discriminate W); cbn in H; discriminate H.
Qed.
Lemma dot_free_ok md m s : dot_free m = true -> js_step md m s (TP PDot) = None.
Proof.
  intros W. destruct m; try discriminate W; cbn; try reflexivity.
  - destruct isint; [reflexivity|discriminate W].
  - destruct ps as [|[t'| |] ps]; try discriminate W; [|reflexivity]. destruct t'; try discriminate W. cbn in *.
    destruct p; try reflexivity. discriminate W.
Qed.
Lemma dot_mode_ok md m s t r : dot_mode m = true -> js_step md m s t = Some r -> match t with TId _ | TKw _ _ => True | _ => False end.
Proof. intros W H. destruct m; try discriminate W; destruct t; cbn in H; try discriminate H; exact I. Qed.
Lemma want_mode_ok md m s p r : want_mode m = true -> js_step md m s (TP p) = Some r ->
  p <> PQuest /\ p <> PDot /\ p <> PAssign /\ forall x, p <> PBin x.
Proof. intros W H. destruct m; try discriminate W. destruct p; cbn in H; try discriminate H; repeat split; try discriminate; intros x; discriminate. Qed.
Lemma incr_free_ok md m s : incr_free m = true -> js_step md m s (TP PPlusPlus) = None /\ forall t, js_step md m s (TNL t) = None.
Proof.
  intros W. destruct m; cbn; try (split; [reflexivity|intro; reflexivity]).
  destruct ps as [|[t'| |] ps]; try (split; [reflexivity|intro; reflexivity]).
    destruct t'; try (split; [reflexivity|intro; reflexivity]); try discriminate W.
    destruct p; try discriminate W; split; try reflexivity; intro; reflexivity.
Qed.

(* ---- which bytes stand next to each other inside a punctuator ---- *)
Fixpoint pairs (p : bstr) : list (N * N) :=
  match p with
  | x :: ((y :: _) as r) => (x, y) :: pairs r
  | _ => []
  end.
Lemma adj_pairs a b p : adj a b p = true -> In (a, b) (pairs p).
Proof.
  induction p as [|x p IH]; [discriminate|]. destruct p as [|y p]; [discriminate|]. rewrite adj_cons.
  intro H. apply orb_prop in H. destruct H as [H|H].
  - apply andb_prop in H. destruct H as [H1 H2]. apply N.eqb_eq in H1. apply N.eqb_eq in H2. subst. left. reflexivity.
  - right. apply IH. exact H.
Qed.
Definition all_pairs : list (N * N) := Eval vm_compute in flat_map (fun e => pairs (fst e)) punct_table.
Lemma glue_pairs a b : glue a b = true -> In (a, b) all_pairs.
Proof.
  unfold glue. intro H. apply existsb_exists in H. destruct H as (e & He & Ha).
  change all_pairs with (flat_map (fun e => pairs (fst e)) punct_table). apply in_flat_map. exists e. split; [exact He|].
  apply adj_pairs. exact Ha.
Qed.
Lemma glue_cases a b : glue a b = true ->
  open_punct a = true /\ (a = 46 -> b = 46) /\ (a = 63 -> b = 63 \/ b = 46 \/ b = 61).
Proof.
  intro H. apply glue_pairs in H. unfold all_pairs in H. cbn [In] in H.
  repeat (destruct H as [H|H]; [injection H as <- <-; split; [reflexivity|split; intro Q; try discriminate Q; auto]|]).
  contradiction.
Qed.

(* ---- the first token of a text, from its first byte ---- *)
Lemma ident_not_space c : is_ident_part c = true -> is_space c = false /\ ((c =? 39) || (c =? 34)) = false.
Proof. unfold is_ident_part, is_ident_start, is_digit, is_space. intro H. split; lia. Qed.
Lemma tok_of_ident_word x : is_word (tok_of_ident x) = true.
Proof. unfold tok_of_ident. destruct (assoc_s x kw_table); reflexivity. Qed.

Lemma first_word b r' ts m_r : lex_text 0 LNormal (b :: r') = Some (ts, m_r) -> is_ident_part b = true ->
  exists t tl, ts = t :: tl /\ is_word t = true /\ (is_digit b = true -> exists x, t = TNum x).
Proof.
  intros H Hb. destruct (ident_not_space b Hb) as [E1 E2]. cbn [lex_text] in H. rewrite E1, E2 in H.
  destruct (is_ident_start b) eqn:Es.
  - destruct (lex_text (span is_ident_part r') LNormal r') as [[l l0]|]; [|discriminate H]. cbn in H. injection H as <- _.
    eexists _, _. split; [reflexivity|]. split; [apply tok_of_ident_word|].
    intro Hd. exfalso. unfold is_ident_start, is_digit in *. lia.
  - assert (Hd : is_digit b = true) by (unfold is_ident_part in Hb; rewrite Es in Hb; exact Hb). rewrite Hd in H.
    destruct (num_span (b :: r')) as [[|n]|]; try discriminate H.
    destruct (lex_text n LNormal r') as [[l l0]|]; [|discriminate H]. cbn in H. injection H as <- _.
    eexists _, _. split; [reflexivity|]. split; [reflexivity|]. intros _. eexists. reflexivity.
Qed.


Lemma lex_punct_step b r' : is_space b = false -> ((b =? 39) || (b =? 34)) = false -> is_ident_start b = false -> is_digit b = false ->
  (b =? 47) = false ->
  lex_text 0 LNormal (b :: r') =
  match find_punct punct_table (b :: r') with
  | Some (S n, Some p) => option_map (fun '(ts, m') => (TP p :: ts, m')) (lex_text n LNormal r')
  | _ => None
  end.
Proof. intros H1 H2 H3 H4 H5. cbn [lex_text]. rewrite H1. rewrite H2. rewrite H3. rewrite H4. rewrite H5. reflexivity. Qed.

Definition first_entries (tbl : list (bstr * option punct)) : list (N * punct) :=
  flat_map (fun e : bstr * option punct => match e with (c :: _, Some q) => [(c, q)] | _ => [] end) tbl.
Lemma fp_first tbl b r' n q : forallb (fun e : bstr * option punct => match fst e with [] => false | _ => true end) tbl = true ->
  find_punct tbl (b :: r') = Some (n, Some q) -> In (b, q) (first_entries tbl).
Proof.
  induction tbl as [|[p o] tbl IH]; intros Hne H; [discriminate H|]. cbn [forallb fst] in Hne. apply andb_prop in Hne. destruct Hne as [Hp Hne].
  cbn [find_punct] in H. unfold first_entries. cbn [flat_map]. apply in_or_app. destruct (is_prefix p (b :: r')) eqn:E.
  - left. injection H as _ ->. destruct p as [|a p']; [discriminate Hp|]. cbn in E. apply andb_prop in E. destruct E as [E _].
    apply N.eqb_eq in E. subst a. left. reflexivity.
  - right. apply IH; assumption.
Qed.
Definition punct_firsts : list (N * punct) := Eval vm_compute in first_entries punct_table.
Lemma fp_cases b r' n q : find_punct punct_table (b :: r') = Some (n, Some q) -> In (b, q) punct_firsts.
Proof. intro H. change punct_firsts with (first_entries punct_table). eapply fp_first; [vm_compute; reflexivity|exact H]. Qed.

Ltac fp_solve H :=
  apply fp_cases in H; unfold punct_firsts in H; cbn [In] in H;
  repeat (destruct H as [H|H]; [try discriminate H; injection H as <-|]); try contradiction.

Lemma fp_dot r' n q : find_punct punct_table (46 :: r') = Some (n, Some q) -> q = PDot.
Proof. intro H. fp_solve H; reflexivity. Qed.
Lemma fp_quest r' n q : find_punct punct_table (63 :: r') = Some (n, Some q) -> q = PQuest.
Proof. intro H. fp_solve H; reflexivity. Qed.
Lemma fp_eq r' n q : find_punct punct_table (61 :: r') = Some (n, Some q) -> q = PAssign \/ exists x, q = PBin x.
Proof. intro H. fp_solve H; first [left; reflexivity | right; eexists; reflexivity]. Qed.

Lemma first_punct b r' ts m_r : is_space b = false -> ((b =? 39) || (b =? 34)) = false -> is_ident_start b = false -> is_digit b = false ->
  (b =? 47) = false -> lex_text 0 LNormal (b :: r') = Some (ts, m_r) ->
  exists n q tl, find_punct punct_table (b :: r') = Some (n, Some q) /\ ts = TP q :: tl.
Proof.
  intros H1 H2 H3 H4 H5 H. rewrite lex_punct_step in H by assumption.
  destruct (find_punct punct_table (b :: r')) as [[[|n] [q|]]|]; try discriminate H.
  destruct (lex_text n LNormal r') as [[l l0]|]; [|discriminate H]. cbn in H. injection H as <- _.
  eexists _, _, _. split; reflexivity.
Qed.

Lemma incr_first rest : forall ts m_r, incr_next rest = true -> lex_text 0 LNormal rest = Some (ts, m_r) ->
  exists tl, ts = TP PPlusPlus :: tl \/ ts = TNL (TP PPlusPlus) :: tl.
Proof.
  induction rest as [|c r IH]; intros ts m_r Hi H; [discriminate Hi|].
  destruct (is_space c) eqn:Esp.
  - assert (Hi' : incr_next r = incr_next (c :: r)) by (unfold incr_next; cbn [skip_spaces]; rewrite Esp; reflexivity).
    cbn [lex_text] in H. rewrite Esp in H. rewrite <- Hi' in Hi. rewrite Hi in H.
    destruct ((c =? 10) || (c =? 13)); cbn [andb] in H.
    + unfold cons_tok in H. destruct (lex_text (incr_skip r) LNormal r) as [[l l0]|]; [|discriminate H]. cbn in H. injection H as <- _.
      eexists. right. reflexivity.
    + eapply IH; eassumption.
  - unfold incr_next in Hi. cbn [skip_spaces] in Hi. rewrite Esp in Hi. cbn [is_prefix] in Hi.
    apply andb_prop in Hi. destruct Hi as [E1 Hi]. apply N.eqb_eq in E1. subst c.
    destruct r as [|c2 w]; [discriminate Hi|]. apply andb_prop in Hi. destruct Hi as [E2 _]. apply N.eqb_eq in E2. subst c2.
    destruct (first_punct 43 (43 :: w) ts m_r eq_refl eq_refl eq_refl eq_refl eq_refl H) as (n & q & tl & F & ->).
    exists tl. left. f_equal. f_equal.
    assert (G : find_punct punct_table (43 :: 43 :: w) = Some (2%nat, Some PPlusPlus)) by (vm_compute; reflexivity).
    rewrite G in F. injection F as _ <-. reflexivity.
Qed.

(* ---- the discipline ---- *)
Definition tail_ok (bs : bstr) (ts : list jstoken) (m' : mode) : Prop :=
  match bs with [] => True | _ => tail_okb (last bs 0) (lastint ts) m' = true end.

(* what follows is lexable and, if it has a first token, the recogniser accepts that token in mode m (on some stack) *)
Definition cont_ok (md : bool) (m : mode) (rest : bstr) : Prop :=
  exists ts_r m_r, lex_text 0 LNormal rest = Some (ts_r, m_r)
    /\ match ts_r with t :: _ => exists s r, js_step md m s t = Some r | [] => True end.

Lemma sep_from_tail md bs ts m' b r' : tail_ok bs ts m' -> cont_ok md m' (b :: r') -> sepP bs (lastint ts) (b :: r').
Proof.
  intros T (ts_r & m_r & L & A). destruct bs as [|c0 bs0]; [exact I|]. unfold tail_ok in T. unfold sepP.
  set (a := last (c0 :: bs0) 0) in *. unfold tail_okb in T.
  apply andb_prop in T. destruct T as [T T3]. apply andb_prop in T. destruct T as [T1 T2].
  assert (Acc : forall t tl, ts_r = t :: tl -> exists s r, js_step md m' s t = Some r) by (intros t tl ->; exact A).
  split; [|split; [|split; [|split]]].
  - intro Ha. rewrite Ha in T1. cbn [negb orb] in T1. apply andb_prop in T1. destruct T1 as [W _].
    destruct (is_ident_part b) eqn:Eb; [exfalso|reflexivity].
    destruct (first_word b r' ts_r m_r L Eb) as (t & tl & -> & Hw & _). destruct (Acc _ _ eq_refl) as (s & r & St).
    rewrite (word_free_ok _ _ _ _ _ W St) in Hw. discriminate.
  - intros Hli Hd Hb. exfalso. subst b. rewrite (digit_ident _ Hd) in T1. cbn [negb orb] in T1. apply andb_prop in T1. destruct T1 as [_ D].
    rewrite Hli in D. cbn [negb orb] in D.
    destruct (first_punct 46 r' ts_r m_r eq_refl eq_refl eq_refl eq_refl eq_refl L) as (n & q & tl & F & ->).
    apply fp_dot in F. subst q. destruct (Acc _ _ eq_refl) as (s & r & St). rewrite dot_free_ok in St by exact D. discriminate.
  - intro Ha. rewrite Ha in T2. change (open_punct 46) with true in T2. change (46 =? 46) with true in T2.
    change (46 =? 63) with false in T2. cbn [negb orb andb] in T2. destruct (is_digit b) eqn:Eb; [exfalso|reflexivity].
    rewrite orb_false_r in T2.
    destruct (first_word b r' ts_r m_r L (digit_ident _ Eb)) as (t & tl & -> & _ & Hn). destruct (Hn Eb) as (x & ->).
    destruct (Acc _ _ eq_refl) as (s & r & St). exact (dot_mode_ok _ _ _ _ _ T2 St).
  - destruct (glue a b) eqn:G; [exfalso|reflexivity]. destruct (glue_cases _ _ G) as (Ho & G46 & G63).
    rewrite Ho in T2. cbn [negb orb] in T2. apply orb_prop in T2. destruct T2 as [T2|T2]; apply andb_prop in T2; destruct T2 as [Ea M]; apply N.eqb_eq in Ea.
    + specialize (G46 Ea). subst b.
      destruct (first_punct 46 r' ts_r m_r eq_refl eq_refl eq_refl eq_refl eq_refl L) as (n & q & tl & F & ->).
      destruct (Acc _ _ eq_refl) as (s & r & St). exact (dot_mode_ok _ _ _ _ _ M St).
    + destruct (G63 Ea) as [->|[->| ->]].
      * destruct (first_punct 63 r' ts_r m_r eq_refl eq_refl eq_refl eq_refl eq_refl L) as (n & q & tl & F & ->).
        apply fp_quest in F. subst q. destruct (Acc _ _ eq_refl) as (s & r & St). destruct (want_mode_ok _ _ _ _ _ M St) as (X & _). congruence.
      * destruct (first_punct 46 r' ts_r m_r eq_refl eq_refl eq_refl eq_refl eq_refl L) as (n & q & tl & F & ->).
        apply fp_dot in F. subst q. destruct (Acc _ _ eq_refl) as (s & r & St). destruct (want_mode_ok _ _ _ _ _ M St) as (_ & X & _). congruence.
      * destruct (first_punct 61 r' ts_r m_r eq_refl eq_refl eq_refl eq_refl eq_refl L) as (n & q & tl & F & ->).
        apply fp_eq in F. destruct (Acc _ _ eq_refl) as (s & r & St). destruct (want_mode_ok _ _ _ _ _ M St) as (_ & _ & X & Y).
        destruct F as [->|[x ->]]; [congruence|exact (Y x eq_refl)].
  - intro Ha. assert (Hs : (is_space a || (a =? 168) || (a =? 169)) = true).
    { destruct Ha as [Ha|[Ha|Ha]]; rewrite Ha; reflexivity. }
    rewrite Hs in T3. cbn [negb orb] in T3. destruct (incr_next (b :: r')) eqn:Ei; [exfalso|reflexivity].
    destruct (incr_first _ _ _ Ei L) as (tl & [-> | ->]); destruct (Acc _ _ eq_refl) as (s & r & St);
      destruct (incr_free_ok md m' s T3) as [I1 I2]; [rewrite I1 in St|rewrite I2 in St]; discriminate.
Qed.
