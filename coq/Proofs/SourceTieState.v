(* Source tie, common part for the translated functions with loops and state (tablegen's gotrans, LOOPS / STATE in
   go/cmd/tablegen/gotrans.go): facts about go_wrap_s below 2^62, go_len, go_index / go_set_nth / go_slice_l at the top
   of a stack kept in reverse.  Imports Model/Bytes.v, the generated tables and Proofs/SourceTieBase.v only. *)
From Coq Require Import ZArith NArith Bool Lia ZifyBool List.
From Soy Require Import Model.Bytes Generated.Tables Proofs.SourceTieBase.
Import ListNotations.
Open Scope N_scope.

Definition st_small (n : Z) : Prop := (0 <= n < 4611686018427387904)%Z.

Lemma st_wrap64 (x : Z) : (-4611686018427387904 <= x <= 4611686018427387904)%Z -> go_wrap_s 64%Z x = x.
Proof.
  intros H. apply go_wrap_s_id; [lia|]. change (2 ^ (64 - 1))%Z with 9223372036854775808%Z. lia.
Qed.

(* ---- the map and slice vocabulary against the model's ---- *)
Lemma st_go_len_app {A} (l1 l2 : list A) : go_len (l1 ++ l2) = (go_len l1 + go_len l2)%Z.
Proof. unfold go_len. rewrite app_length. lia. Qed.

Lemma st_go_len_rev {A} (l : list A) : go_len (rev l) = go_len l.
Proof. unfold go_len. now rewrite rev_length. Qed.

Lemma st_go_len_cons {A} (x : A) (l : list A) : go_len (x :: l) = (go_len l + 1)%Z.
Proof. unfold go_len. cbn [length]. lia. Qed.

Lemma st_go_len_nonneg {A} (l : list A) : (0 <= go_len l)%Z.
Proof. unfold go_len. lia. Qed.

(* the element i places below the top of the Go stack is element i of the model's scope *)
Lemma go_index_rev {A} (s : list A) (i : nat) :
  (i < length s)%nat -> go_index (rev s) (go_len s - 1 - Z.of_nat i)%Z = nth_error s i.
Proof.
  intros H. unfold go_index. rewrite st_go_len_rev. unfold go_len.
  replace (orb _ _) with false by lia.
  replace (Z.to_nat (Z.of_nat (length s) - 1 - Z.of_nat i)) with (length s - S i)%nat by lia.
  revert i H. induction s as [|x s IH]; intros i H; cbn [length] in *; [lia|].
  cbn [rev]. destruct i as [|i].
  - rewrite nth_error_app2 by (rewrite rev_length; lia). rewrite rev_length.
    replace (S (length s) - 1 - length s)%nat with O by lia. reflexivity.
  - rewrite nth_error_app1 by (rewrite rev_length; lia).
    replace (S (length s) - S (S i))%nat with (length s - S i)%nat by lia. cbn [nth_error]. apply IH. lia.
Qed.

Lemma go_index_top {A} (r : list A) (f : A) : go_index (rev (f :: r)) (go_len (f :: r) - 1)%Z = Some f.
Proof.
  replace (go_len (f :: r) - 1)%Z with (go_len (f :: r) - 1 - Z.of_nat 0)%Z by lia.
  rewrite go_index_rev by (cbn [length]; lia). reflexivity.
Qed.

Lemma go_set_nth_top {A} (r : list A) (f x : A) :
  go_set_nth (rev (f :: r)) (go_len (f :: r) - 1)%Z x = Some (rev (x :: r)).
Proof.
  unfold go_set_nth. rewrite st_go_len_rev. pose proof (st_go_len_nonneg r). rewrite st_go_len_cons.
  replace (orb _ _) with false by lia. f_equal. cbn [rev].
  replace (Z.to_nat (go_len r + 1 - 1)) with (length (rev r)) by (rewrite rev_length; unfold go_len; lia).
  generalize (rev r) as l. induction l as [|y l IH]; cbn [app length go_set_nth_nat]; [reflexivity|]. now rewrite IH.
Qed.

Lemma go_slice_l_pop {A} (r : list A) (f : A) :
  go_slice_l (rev (f :: r)) 0%Z (go_len (f :: r) - 1)%Z = Some (rev r).
Proof.
  unfold go_slice_l. rewrite st_go_len_rev. pose proof (st_go_len_nonneg r). rewrite st_go_len_cons.
  replace (orb _ _) with false by lia. f_equal. change (Z.to_nat 0) with O. cbn [skipn rev].
  replace (Z.to_nat (go_len r + 1 - 1 - 0)) with (length (rev r) + 0)%nat by (rewrite rev_length; unfold go_len; lia).
  rewrite firstn_app_2. cbn [firstn]. apply app_nil_r.
Qed.

Lemma st_skipn_S {A} (i : nat) (s : list A) (f : A) (rest : list A) : skipn i s = f :: rest -> skipn (S i) s = rest.
Proof.
  revert s. induction i as [|i IH]; intros [|x s] E; cbn [skipn] in E; try discriminate.
  - now inversion E.
  - cbn [skipn]. apply IH in E. exact E.
Qed.

Lemma st_dec_of_Z_of_N (n : N) : dec_of_Z (Z.of_N n) = dec_of_N n.
Proof. destruct n; reflexivity. Qed.


(* re.ReplaceAllString(s, repl) of a package-level regexp stays a parameter of the translation (regular expressions are
   not modelled).  The instance for a hand-written matcher f that implements the replacement with the template `want`:
   with any other template the instance answers the empty string, so a lemma `model = source` also says that the source
   passes exactly this template. *)
Definition st_re (f : bstr -> bstr) (want : bstr) (s repl : bstr) : bstr := if bstr_eqb repl want then f s else [].
