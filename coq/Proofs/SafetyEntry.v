(* C06: the code inside errRecover, soyhtml.EvalExpr, soy.ParseGlobals,
   and funcRange's loop. *)
From Coq Require Import Lia ZifyBool.
From Soy Require Import Model.Bytes Model.Num Model.Values Model.Outcome Model.Ast
  Model.Escape Model.Directives Model.Print Generated.Tables Model.Interp Model.InterpSafety Model.Globals
  Spec.Safety Proofs.SafetyProofs.
Open Scope N_scope.

(* the body of the (repaired) recover handler cannot itself panic when the
   state has no template (EvalExpr), or when its node lies inside the source
   recorded for its template *)
Theorem err_recover_safe_lemma v :
  match rv_tmpl v with
  | None => True
  | Some name =>
      match assoc_s name (r_sources (rv_reg v)) with
      | Some src => rv_pos v <= N.of_nat (length src)
      | None => True
      end
  end ->
  exists file line, err_recover true v = Ok (file, line).
Proof.
  unfold err_recover, call_annotation, err_from_node, reg_line, line_number.
  destruct (rv_tmpl v) as [name|]; [|intros _; eexists _, _; reflexivity].
  destruct (assoc_s name (r_sources (rv_reg v))) as [src|]; intros H.
  - destruct (N.leb_spec (rv_pos v) (N.of_nat (length src))); [|lia]. eexists _, _; reflexivity.
  - eexists _, _; reflexivity.
Qed.

(* the pinned handler dereferences the nil template *)
Theorem err_recover_pinned_nil reg pos :
  err_recover false {| rv_reg := reg; rv_tmpl := None; rv_pos := pos |} = Crash e_nilderef.
Proof. reflexivity. Qed.

(* outcomes up to the text carried by a crash *)
Definition crash_class {A} (o : outcome A) : outcome A := match o with Crash _ => Crash [] | x => x end.

(* Interp.render inlines exactly this handler (for registries that record a file
   whenever they record a source, which Registry.Add guarantees) *)
Theorem render_uses_err_recover cf fuel name data_id data cl bl first_id t :
  find_template (r_templates (c_reg cf)) name = Some t ->
  (assoc_s name (r_sources (c_reg cf)) = None <-> assoc_s name (r_files (c_reg cf)) = None) ->
  let st0 := init_state (sc_enter (new_scope data_id data)) (entry_mode (t_ns_autoescape t)) name cl bl first_id in
  let run := walk cf fuel (t_node t) st0 in
  let rr := render cf fuel name data_id data cl bl first_id in
  (crash_class (rr_outcome rr), rr_file rr, rr_line rr) =
  (let '(o, f, l) := finish_render true {| rv_reg := c_reg cf; rv_tmpl := Some name; rv_pos := cur (snd run) |} (fst run) in
   (crash_class o, f, l)).
Proof.
  intros Hf Hrec. cbv zeta. unfold render. rewrite Hf.
  destruct (walk cf fuel (t_node t) _) as [r st]. cbn [fst snd].
  destruct r; cbn [finish_render rr_outcome rr_file rr_line]; try reflexivity.
  unfold err_recover, call_annotation, err_from_node, reg_line, reg_file. cbn [rv_tmpl rv_reg rv_pos].
  destruct (assoc_s name (r_sources (c_reg cf))) as [src|] eqn:Hs;
    destruct (assoc_s name (r_files (c_reg cf))) as [file|] eqn:Hfl.
  - destruct (line_number src (cur st)); reflexivity.
  - destruct Hrec as [_ Hrec]. discriminate (Hrec eq_refl).
  - destruct Hrec as [Hrec _]. discriminate (Hrec eq_refl).
  - reflexivity.
Qed.

Theorem eval_expr_no_escape_lemma fuel n : no_escape (eval_expr_impl true fuel n).
Proof.
  unfold eval_expr_impl.
  pose proof (walk_no_escape
    {| c_reg := empty_registry; c_ij := None; c_oblig := []; c_msgs := None |} fuel n (init_state [] 0 [] None None 2)) as H.
  unfold eval_expr. destruct (fst (walk _ fuel n _)); cbn in H |- *; try exact I; exact H.
Qed.

(* the same through the pinned handler: every evaluation error escapes *)
Theorem eval_expr_pinned_escapes fuel n m :
  eval_expr fuel n = Err m -> eval_expr_impl false fuel n = Crash e_nilderef.
Proof. unfold eval_expr_impl. intros ->. reflexivity. Qed.

Section GlobalsSafe.
Variable parse : bstr -> outcome node.
Hypothesis parse_safe : forall t, no_escape (parse t).     (* C05: parse.Expr returns a tree or an error *)
Variable fuel : nat.

Lemma no_escape_bind {A B} (x : outcome A) (f : A -> outcome B) :
  no_escape x -> (forall v, no_escape (f v)) -> no_escape (bind x f).
Proof. destruct x; cbn; try tauto. intros _ H. apply H. Qed.

Lemma globals_line_safe g line : no_escape (globals_line parse fuel g line).
Proof.
  unfold globals_line. destruct line as [|c l]; [exact I|].
  destruct (is_comment _); [exact I|].
  destruct (split_eq [] _) as [[lhs rhs]|]; [|exact I].
  apply no_escape_bind; [apply parse_safe|]. intros nd.
  apply no_escape_bind; [apply eval_expr_no_escape_lemma|]. intros v. exact I.
Qed.

Lemma globals_lines_safe ls : forall g, no_escape (globals_lines parse fuel g ls).
Proof.
  induction ls as [|raw r IH]; intros g; cbn [globals_lines]; [exact I|].
  destruct (max_token <=? _); [exact I|].
  apply no_escape_bind; [apply globals_line_safe | intros g'; apply IH].
Qed.

Theorem parse_globals_no_escape_lemma input : no_escape (parse_globals parse fuel input).
Proof. unfold parse_globals. apply globals_lines_safe. Qed.
End GlobalsSafe.

(* enough fuel: the loop leaves through its condition (or the overflow guard), never through the fuel *)
Lemma range_loop_enough step limit : (0 < step)%Z -> (limit < two63)%Z ->
  forall fuel i, (limit - i <= Z.of_nat fuel * step)%Z ->
    range_loop fuel i limit step = Ok (range_list fuel i limit step).
Proof.
  intros Hs Hl. induction fuel as [|f IH]; intros i Hf.
  - cbn [range_loop range_list]. destruct (Z.ltb_spec i limit); [lia | reflexivity].
  - cbn [range_loop range_list]. destruct (Z.ltb_spec i limit) as [Hlt|]; [|reflexivity].
    destruct (Z.leb_spec two63 (i + step)) as [Hov|Hno].
    + (* the guard: the next index is past every limit *)
      destruct f; cbn [range_list]; [reflexivity|].
      destruct (Z.ltb_spec (i + step) limit); [lia | reflexivity].
    + rewrite IH by lia. reflexivity.
Qed.

Lemma range_fuel_enough i limit step : (0 < step)%Z ->
  (limit - i <= Z.of_nat (Z.to_nat ((limit - i) / step + 1)) * step)%Z.
Proof.
  intros Hs. destruct (Z_le_gt_dec (limit - i) 0) as [Hle|Hgt]; [nia|].
  assert (0 <= (limit - i) / step)%Z by (apply Z.div_pos; lia).
  rewrite Z2Nat.id by lia.
  pose proof (Z.mul_succ_div_gt (limit - i) step Hs). lia.
Qed.

(* range with a positive step always returns; with a non-positive step it is an error *)
Theorem range_terminates_lemma i limit step :
  (limit < two63)%Z ->
  func_range_repaired i limit step =
    if (step <=? 0)%Z then Err e_range
    else Ok (range_list (Z.to_nat ((limit - i) / step + 1)) i limit step).
Proof.
  intros Hl. unfold func_range_repaired. destruct (Z.leb_spec step 0); [reflexivity|].
  apply range_loop_enough; [lia | exact Hl | apply range_fuel_enough; lia].
Qed.

(* without the bound on the limit (not a Go int) the loop still never diverges *)
Lemma range_loop_no_diverge step limit : (0 < step)%Z ->
  forall fuel i, (limit - i <= Z.of_nat fuel * step)%Z -> no_escape (range_loop fuel i limit step).
Proof.
  intros Hs. induction fuel as [|f IH]; intros i Hf; cbn [range_loop].
  - destruct (Z.ltb_spec i limit); [lia | exact I].
  - destruct (Z.ltb_spec i limit); [|exact I]. destruct (two63 <=? i + step)%Z; [exact I|].
    specialize (IH (i + step)%Z ltac:(lia)). destruct (range_loop f (i + step) limit step); cbn in *; tauto.
Qed.

Theorem range_no_escape i limit step : no_escape (func_range_repaired i limit step).
Proof.
  unfold func_range_repaired. destruct (Z.leb_spec step 0); [exact I|].
  apply range_loop_no_diverge; [lia | apply range_fuel_enough; lia].
Qed.

(* the list the loop builds, in closed form: i, i+step, ... below the limit *)
Definition range_count (i limit step : Z) : nat := Z.to_nat ((limit - i + step - 1) / step).

Lemma range_list_closed step limit : (0 < step)%Z ->
  forall fuel i, (range_count i limit step <= fuel)%nat ->
    range_list fuel i limit step = map (fun k => VInt (i + Z.of_nat k * step)) (seq 0 (range_count i limit step)).
Proof.
  intros Hs. induction fuel as [|f IH]; intros i Hf.
  - assert (range_count i limit step = 0)%nat as -> by lia. reflexivity.
  - cbn [range_list]. destruct (Z.ltb_spec i limit) as [Hlt|Hge].
    + assert (Hc : range_count i limit step = S (range_count (i + step) limit step)).
      { unfold range_count.
        replace (limit - i + step - 1)%Z with ((limit - (i + step) + step - 1) + 1 * step)%Z by lia.
        rewrite Z.div_add by lia.
        assert (0 <= (limit - (i + step) + step - 1) / step)%Z by (apply Z.div_pos; lia).
        lia. }
      rewrite Hc in Hf |- *. rewrite IH by lia. cbn [seq map]. f_equal; [f_equal; lia|].
      rewrite <- seq_shift, map_map. apply map_ext. intros k. f_equal. lia.
    + assert (range_count i limit step = 0)%nat as ->; [|reflexivity].
      unfold range_count. assert ((limit - i + step - 1) / step < 1)%Z; [|lia].
      apply Z.div_lt_upper_bound; lia.
Qed.

Lemma range_count_fuel i limit step : (0 < step)%Z ->
  (range_count i limit step <= Z.to_nat ((limit - i) / step + 1))%nat.
Proof.
  intros Hs. unfold range_count.
  assert ((limit - i + step - 1) / step <= (limit - i) / step + 1)%Z; [|lia].
  replace ((limit - i) / step + 1)%Z with ((limit - i + 1 * step) / step)%Z by (rewrite Z.div_add by lia; reflexivity).
  apply Z.div_le_mono; lia.
Qed.

Theorem range_result i limit step : (limit < two63)%Z ->
  func_range_repaired i limit step =
    if (step <=? 0)%Z then Err e_range
    else Ok (map (fun k => VInt (i + Z.of_nat k * step)) (seq 0 (range_count i limit step))).
Proof.
  intros Hl. rewrite range_terminates_lemma by exact Hl.
  destruct (Z.leb_spec step 0); [reflexivity|]. f_equal.
  apply range_list_closed; [|apply range_count_fuel]; lia.
Qed.

(* ---- the pinned loop really never exits on the ledger's witnesses ---- *)

Theorem range_pinned_step0_diverges : forall fuel, range_loop_pinned fuel 0 5 0 = Diverge.
Proof.
  induction fuel as [|f IH]; [reflexivity|].
  cbn [range_loop_pinned]. change (0 <? 5)%Z with true. cbv iota.
  change (wrap64 (0 + 0)) with 0%Z. rewrite IH. reflexivity.
Qed.

Definition max_int : Z := 9223372036854775807.
Definition two62 : Z := 4611686018427387904.

(* range(0, MaxInt64, 2^62): the index runs 0, 2^62, -2^63, -2^62, 0, ... for ever *)
Theorem range_pinned_overflow_diverges : forall fuel,
  range_loop_pinned fuel 0 max_int two62 = Diverge
  /\ range_loop_pinned fuel two62 max_int two62 = Diverge
  /\ range_loop_pinned fuel (- two63) max_int two62 = Diverge
  /\ range_loop_pinned fuel (- two62) max_int two62 = Diverge.
Proof.
  induction fuel as [|f (H0 & H1 & H2 & H3)]; [repeat split; reflexivity|].
  repeat split; cbn [range_loop_pinned].
  - change (0 <? max_int)%Z with true. cbv iota.
    change (wrap64 (0 + two62)) with two62. rewrite H1. reflexivity.
  - change (two62 <? max_int)%Z with true. cbv iota.
    change (wrap64 (two62 + two62)) with (- two63)%Z. rewrite H2. reflexivity.
  - change (- two63 <? max_int)%Z with true. cbv iota.
    change (wrap64 (- two63 + two62)) with (- two62)%Z. rewrite H3. reflexivity.
  - change (- two62 <? max_int)%Z with true. cbv iota.
    change (wrap64 (- two62 + two62)) with 0%Z. rewrite H0. reflexivity.
Qed.
