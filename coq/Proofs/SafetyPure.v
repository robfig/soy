(* C06: the pure helpers the walker lifts (arith, compare_op,
   value_string, print_writes, apply_func) never crash, never diverge and never
   run out of their own fuel, and an error of theirs carries one of the texts
   of [pure_texts]; [Crash e_unknown] of apply_func is unreachable for the
   names of the regenerated function table (a finite check on
   Generated.Tables.html_funcs, re-run whenever the table changes). *)
From Coq Require Import Lia ZifyBool.
From Soy Require Import Model.Bytes Model.Utf8 Model.Num Model.Values Model.Outcome Model.Ast
  Model.Escape Model.Directives Model.Print Generated.Tables Model.Interp
  Proofs.BytesBase Proofs.ValueProofs.
Open Scope N_scope.

(* no crash, no divergence *)
Definition nc {A} (o : outcome A) : Prop :=
  match o with Crash _ | Diverge => False | _ => True end.
(* ... and the helper's own fuel sufficed *)
Definition nf {A} (o : outcome A) : Prop :=
  match o with Crash _ | Diverge | OutOfFuel => False | _ => True end.

Lemma nf_nc {A} (o : outcome A) : nf o -> nc o.
Proof. destruct o; cbn; tauto. Qed.
Lemma nf_ok {A} (x : A) : nf (Ok x). Proof. exact I. Qed.
Lemma nf_err {A} m : nf (@Err A m). Proof. exact I. Qed.
Lemma nf_oom {A} : nf (@OutOfModel A). Proof. exact I. Qed.
Lemma nf_bind {A B} (x : outcome A) (f : A -> outcome B) :
  nf x -> (forall v, nf (f v)) -> nf (bind x f).
Proof. destruct x; cbn; try tauto. intros _ H. apply H. Qed.
#[global] Hint Resolve nf_ok nf_err nf_oom : nf.

(* the error texts of the pure helpers *)
Definition pure_texts : list bstr :=
  [ Interp.e_type; Interp.e_notnumber; Interp.e_divzero; Interp.e_func; Interp.e_range; Values.e_undef_string;
    Directives.e_type; Directives.e_index; Print.e_nodirective; Print.e_arity; Print.e_nilapply ].
Definition pure_text (e : bstr) : bool := existsb (bstr_eqb e) pure_texts.

(* a value, OutOfModel, or an error with one of those texts; [lax] says whether a short budget (OutOfFuel) and a
   name outside the function table (Crash) are tolerated: [pans False] implies [nf] *)
Definition pans (lax : Prop) {A} (o : outcome A) : Prop :=
  match o with
  | Ok _ | OutOfModel => True
  | Err e => pure_text e = true
  | OutOfFuel | Crash _ => lax
  | Diverge => False
  end.

Lemma pans_nf {A} (o : outcome A) : pans False o -> nf o.
Proof. destruct o; cbn; tauto. Qed.

Section Pure.
Variable lax : Prop.

Lemma pans_bind {A B} (x : outcome A) (f : A -> outcome B) :
  pans lax x -> (forall v, pans lax (f v)) -> pans lax (bind x f).
Proof. destruct x; cbn; try tauto. intros _ H. apply H. Qed.

(* a leaf: a value, OutOfModel, or one of the texts (checked by evaluation) *)
Ltac pleaf := first [ exact I | reflexivity ].

Lemma pans_list_items f l : (forall x, In x l -> pans lax (to_string f x)) -> pans lax (list_items f l).
Proof.
  induction l as [|x l IH]; intros H; [pleaf|].
  rewrite list_items_cons. apply pans_bind; [apply H; left; reflexivity|]. intros s.
  apply pans_bind; [apply IH; intros y Hy; apply H; right; exact Hy|]. intros rs. pleaf.
Qed.
Lemma pans_map_items f m : (forall kx, In kx m -> pans lax (to_string f (snd kx))) -> pans lax (map_items f m).
Proof.
  induction m as [|[k x] m IH]; intros H; [pleaf|].
  rewrite map_items_cons. apply pans_bind.
  - unfold entry_string. destruct x; try pleaf; apply (H (k, _)); left; reflexivity.
  - intros s. apply pans_bind; [apply IH; intros y Hy; apply H; right; exact Hy|]. intros rs. pleaf.
Qed.

Lemma pans_to_string : forall f v, lax \/ (depth v < f)%nat -> pans lax (to_string f v).
Proof.
  induction f as [|f IH]; intros v Hd; [destruct Hd as [Hl|Hd]; [exact Hl | lia]|].
  destruct v as [| |x|z|x|t|i l|i m]; try pleaf.
  - destruct x; pleaf.
  - cbn [to_string]. destruct (fl_to_string x); pleaf.
  - rewrite to_string_list. apply pans_bind; [|intros; pleaf].
    apply pans_list_items. intros x Hx. apply IH. destruct Hd as [Hl|Hd]; [left; exact Hl | right].
    pose proof (fold_max_le depth x l Hx). cbn [depth] in Hd. lia.
  - rewrite to_string_map. apply pans_bind; [|intros; pleaf].
    apply pans_map_items. intros kx Hx. apply IH. destruct Hd as [Hl|Hd]; [left; exact Hl | right].
    pose proof (fold_max_le (fun kx => depth (snd kx)) kx m Hx). cbn [depth] in Hd. lia.
Qed.

Theorem pans_value_string v : pans lax (value_string v).
Proof. unfold value_string. apply pans_to_string. right. lia. Qed.

Lemma pans_to_float v : pans lax (to_float v).
Proof. destruct v; cbn [to_float]; try pleaf. destruct (fl_of_int z); pleaf. Qed.
Lemma pans_of_fl o : pans lax (of_fl o).
Proof. destruct o; pleaf. Qed.
Lemma pans_float_op f a c : pans lax (float_op f a c).
Proof.
  unfold float_op. apply pans_bind; [apply pans_to_float|]. intros x.
  apply pans_bind; [apply pans_to_float|]. intros y. apply pans_of_fl.
Qed.

Theorem pans_arith op a c : pans lax (arith op a c).
Proof.
  destruct op; cbn [arith]; try pleaf; try apply pans_float_op.
  - (* OMul *) destruct a; try apply pans_float_op. destruct c; try apply pans_float_op. pleaf.
  - (* OMod *) destruct a as [| |?|x|?|?|? ?|? ?], c as [| |?|y|?|?|? ?|? ?]; try pleaf.
    destruct (y =? 0)%Z; pleaf.
  - (* OAdd *)
    assert (Hs : pans lax (if is_str a || is_str c
                     then s1 <- value_string a;; s2 <- value_string c;; Ok (VStr (s1 ++ s2))
                     else float_op fl_add_r a c)).
    { destruct (is_str a || is_str c); [|apply pans_float_op].
      apply pans_bind; [apply pans_value_string|]. intros s1.
      apply pans_bind; [apply pans_value_string|]. intros s2. pleaf. }
    destruct a; try exact Hs. destruct c; try exact Hs. pleaf.
  - (* OSub *) destruct a; try apply pans_float_op. destruct c; try apply pans_float_op. pleaf.
Qed.

Theorem pans_compare op a c : pans lax (compare_op op a c).
Proof.
  unfold compare_op. apply pans_bind; [apply pans_to_float|]. intros x.
  apply pans_bind; [apply pans_to_float|]. intros y. pleaf.
Qed.

Lemma pans_brs : forall f s n, lax \/ (n < Z.of_nat f)%Z -> pans lax (back_to_rune_start f s n).
Proof.
  induction f as [|f IH]; intros s n Hf; cbn [back_to_rune_start]; (destruct (Z.ltb_spec n 0); [reflexivity|]);
    (destruct (nth_error s (Z.to_nat n)) as [c|]; [|reflexivity]); (destruct (rune_start c); [exact I|]).
  - destruct Hf as [Hl|Hf]; [exact Hl | lia].
  - apply IH. destruct Hf as [Hl|Hf]; [left; exact Hl | right; lia].
Qed.

Lemma pans_truncate s n e : pans lax (truncate s n e).
Proof.
  unfold truncate. destruct (Z.leb_spec (Z.of_nat (length s)) n); [exact I|].
  destruct e; [destruct (n >? 3)%Z|]; (apply pans_bind; [apply pans_brs; right; lia | intros; exact I]).
Qed.

Lemma pans_apply_fn fn args s : pans lax (apply_fn fn args s).
Proof.
  unfold apply_fn.
  destruct (Directives.fn_is fn fn_NoAutoescape); [pleaf|].
  destruct (Directives.fn_is fn fn_EscapeHtml); [pleaf|].
  destruct (Directives.fn_is fn fn_ChangeNewlineToBr); [pleaf|].
  destruct (Directives.fn_is fn fn_EscapeUri); [pleaf|].
  destruct (Directives.fn_is fn fn_InsertWordBreaks).
  { destruct args as [|[] ?]; pleaf. }
  destruct (Directives.fn_is fn fn_Truncate); [|pleaf].
  destruct args as [|[n| |] [|a2 [|a3 r]]]; try pleaf.
  - apply pans_truncate.
  - destruct a2; try apply pans_truncate; destruct (Z.of_nat (length s) <=? n)%Z; pleaf.
  - destruct a2; pleaf.
Qed.

Lemma pans_apply_directives dirs : forall s esc, pans lax (apply_directives dirs s esc).
Proof.
  induction dirs as [|[name args] rest IH]; intros s esc; cbn [apply_directives]; [pleaf|].
  destruct (lookup_directive name) as [[arglens [cancel [nilapply fn]]]|]; [|pleaf].
  destruct (negb _); [pleaf|]. destruct nilapply; [pleaf|].
  apply pans_bind; [apply pans_apply_fn|]. intros s'. apply IH.
Qed.

Theorem pans_print_writes mode dirs s : pans lax (print_writes mode dirs s).
Proof.
  unfold print_writes. apply pans_bind; [apply pans_apply_directives|]. intros [s' esc]. pleaf.
Qed.

(* functions: the table only holds names apply_func knows *)

Definition known_func (name : bstr) : bool :=
  Interp.fn_is name n_isNonnull || Interp.fn_is name n_length || Interp.fn_is name n_keys
  || Interp.fn_is name n_augmentMap || Interp.fn_is name n_round || Interp.fn_is name n_floor
  || Interp.fn_is name n_ceiling || Interp.fn_is name n_min || Interp.fn_is name n_max
  || Interp.fn_is name n_randomInt || Interp.fn_is name n_strContains || Interp.fn_is name n_range
  || Interp.fn_is name n_hasData.

(* the finite check on the regenerated table *)
Lemma html_funcs_known : forallb (fun p => known_func (fst p)) html_funcs = true.
Proof. vm_compute. reflexivity. Qed.


Lemma func_arities_known name ar : func_arities name = Some ar -> known_func name = true.
Proof.
  unfold func_arities. intros H. apply assoc_s_In in H.
  pose proof html_funcs_known as Hk. rewrite forallb_forall in Hk. apply (Hk _ H).
Qed.

Lemma pans_round_core x :
  pans lax (match fl_add x (if fl_isneg x && negb (fl_is_zero x) then fl_neg half else half) with
      | Some y => match fl_trunc_Z y with Some z => Ok (FVal (VInt (wrap64 z))) | None => OutOfModel end
      | None => @OutOfModel fres
      end).
Proof. destruct (fl_add _ _); [|pleaf]. destruct (fl_trunc_Z _); pleaf. Qed.

(* goals [pans lax (match .. end)] over argument lists: split the scrutinee until a leaf is reached *)
Ltac pans_leaf :=
  first [ pleaf | apply pans_round_core | apply pans_of_fl
        | apply pans_bind; [apply pans_to_float | intros ?]
        | apply pans_bind; [apply pans_of_fl | intros ?] ].
Ltac pans_split :=
  repeat first [ pans_leaf
               | match goal with |- pans lax (match ?x with _ => _ end) => destruct x end
               | match goal with |- pans lax (if ?x then _ else _) => destruct x end ].

Theorem pans_apply_func name vs : lax \/ known_func name = true -> pans lax (apply_func name vs).
Proof.
  intros Hk. unfold apply_func. unfold known_func in Hk.
  destruct (Interp.fn_is name n_isNonnull); [pans_split|].
  destruct (Interp.fn_is name n_length); [pans_split|].
  destruct (Interp.fn_is name n_keys); [pans_split|].
  destruct (Interp.fn_is name n_augmentMap); [pans_split|].
  destruct (Interp.fn_is name n_round); [pans_split|].
  destruct (Interp.fn_is name n_floor); [pans_split|].
  destruct (Interp.fn_is name n_ceiling); [pans_split|].
  destruct (Interp.fn_is name n_min); [pans_split|].
  destruct (Interp.fn_is name n_max); [pans_split|].
  destruct (Interp.fn_is name n_randomInt); [pans_split|].
  destruct (Interp.fn_is name n_strContains); [pans_split|].
  destruct (Interp.fn_is name n_range); [pans_split|].
  destruct (Interp.fn_is name n_hasData); [pleaf|].
  destruct Hk as [Hl|Hk]; [exact Hl | discriminate].
Qed.

Theorem pans_apply_func_table name ar vs : func_arities name = Some ar -> pans lax (apply_func name vs).
Proof. intros H. apply pans_apply_func. right. eapply func_arities_known; eauto. Qed.
End Pure.
