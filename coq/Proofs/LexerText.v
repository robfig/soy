(* Progress lemma for lexText: the loop scans to `{`, `}`, a comment opener or end of input. *)
From Soy Require Import Model.Bytes Model.Utf8 Model.Outcome Model.Token Generated.Tables Model.Lexer Proofs.LexerPrim Proofs.LexerStates.
From Coq Require Import ZifyBool Lia.
Open Scope Z_scope.

Section Text.
Variable inp : bstr.
Notation ilen := (Z.of_nat (length inp)).
Variable base : Z.
Hypothesis base_nonneg : 0 <= base.
Notation inv := (inv inp base).
Notation loop_post := (loop_post inp base).
Notation lim := (Z.to_N (base + ilen)).

(* loop invariant: besides wf, a previous rune read in this invocation (r0 <> 0) lies after start,
   so that `l.start++` ("ignore the preceding space") stays in front of pos *)
Lemma lex_text_loop_ok fuel : forall r0 l, wf inp l /\ (r0 <> 0 -> l_start l + 1 <= l_pos l) -> items_ok lim false (l_out l) ->
  (Z.to_nat (ilen - l_pos l) < fuel)%nat ->
  okp (lex_text_loop inp ilen base fuel r0 l) (loop_post 24 l).
Proof.
  induction fuel as [|f IH]; intros r0 l Hw Hit Hf; [lia|]. cbn [lex_text_loop]. cbv zeta.
  eapply okp_bind; [apply next_read; arith|]. intros [r l1] (w & -> & H). unfold read in H.
  (* the comment openers return; otherwise at most one more rune has been read and put back *)
  eapply okp_bind with (P := fun res => match res with
    | inl e => loop_post 24 l e
    | inr l2 => exists p w2 t, l2 = scanned l p w2 t /\ p = l_pos l + w /\ l_ticks l + 1 <= t <= l_ticks l + 2 /\ ((r =? 47) = false -> w2 = w)
    end).
  { apply okp_if; intros E; [|eexists _, _, _; split; [reflexivity|lia]].
    assert (H1 : w = 1 /\ l_pos l + 1 <= ilen) by lia. clear H.
    eapply okp_bind; [apply next_read; arith|]. intros [r2 l2] (w2 & -> & H). unfold read in H. hintro H.
    apply okp_if; intros E2.
    - apply okp_if; intros _; [|eexists _, _, _; split; [reflexivity|arith]].
      assert (H2 : w2 = 1 /\ l_pos l + 2 <= ilen) by lia. clear H E2.
      hstep. cbv zeta. destruct (negb (r0 =? 0)) eqn:E0; land.
    - apply okp_if; intros E3; [|eexists _, _, _; split; [reflexivity|arith]].
      assert (H2 : w2 = 1 /\ l_pos l + 2 <= ilen) by lia. clear H E2 E3.
      hstep. hstep.
      (* a doc comment if `*` follows and then no `/` *)
      eapply okp_bind; [apply (peek_if_spec _ _ (fun r4 => negb (r4 =? 47))); arith|].
      intros [doc l5] (w5 & t5 & r4 & -> & H5). unfold read in H5. hintro H5.
      apply okp_if; intros E4; land. }
  intros [e|l2]; [exact id|]. intros (p & w2 & t & -> & H2).
  apply okp_if; intros E; [hstep; land|].
  exit_if.
  apply okp_if; intros E3.
  - hstep. eapply okp_bind; [apply emit_sent; [change (val_min itemEOF) with 0%nat; arith|assumption]|].
    intros l4 (it & -> & _ & _ & Hi). land.
  - eapply okp_weaken; [apply IH; [arith|assumption|arith]|intros ?; apply loop_post_mono; arith].
Qed.

Lemma lex_text_ok l : inv LText l -> okp (lex_text inp ilen base l) (loop_post 24 l).
Proof.
  intros (Hw & Hit & _). apply lex_text_loop_ok; [split; [exact Hw|congruence]|exact Hit|apply loop_fuel_ok; destruct Hw; lia].
Qed.

End Text.
