(* Source tie, family 81-gotrans-directives, soyhtml/directives.go: directiveTruncate (argument checks, the default and
   the explicit ellipsis flag, the "- 3", the walk back to a rune start, the cut and the "...") against
   Model/Directives.v's truncate / back_to_rune_start, with the function as gotrans translates it from the source of the tree under check.
   The printed value enters through its String() image ([st_string]); the loop's fuel is maxLen + 2, which the lemma
   shows sufficient: where the translation answers None, Go panics (index out of range below 0, or a failed argument
   check), it never runs out of fuel on a string shorter than 2^62 bytes. *)
From Coq Require Import ZArith NArith Bool Lia ZifyBool List.
From Soy Require Import Model.Bytes Model.Utf8 Model.Outcome Model.Values Generated.Tables Model.Directives
  Proofs.SourceTieBase Proofs.SourceTieValue Proofs.SourceTieState.
Import ListNotations.
Open Scope N_scope.

(* utf8.RuneStart on a byte *)
Lemma st_rune_start_bits (c : N) : c < 256 -> negb (Z.eqb (Z.land (Z.of_N c) 192%Z) 128%Z) = rune_start c.
Proof. revert c. apply st_below_bool. vm_compute. reflexivity. Qed.

Lemma st_back_range (s : bstr) (fuel : nat) (n m : Z) : back_to_rune_start fuel s n = Ok m -> (0 <= m <= n)%Z.
Proof.
  revert n. induction fuel as [|f IH]; intros n H; cbn [back_to_rune_start] in H.
  - destruct (n <? 0)%Z eqn:E; [discriminate|]. destruct (nth_error s (Z.to_nat n)); [|discriminate].
    destruct (rune_start n0); [|discriminate]. injection H as <-. lia.
  - destruct (n <? 0)%Z eqn:E; [discriminate|]. destruct (nth_error s (Z.to_nat n)); [|discriminate].
    destruct (rune_start n0); [injection H as <-; lia|]. apply IH in H. lia.
Qed.

(* the loop  for !utf8.RuneStart(str[maxLen]) { maxLen-- } *)
Lemma trunc_loop_matches (s : bstr) :
  Forall (fun c => c < 256) s -> st_small (go_len s) ->
  forall (k : nat) (n : Z) (fuel mfuel : nat),
    Z.to_nat (n + 1) = k -> (-1 <= n < go_len s)%Z -> (k + 1 <= fuel)%nat -> (k <= mfuel)%nat ->
    src_soyhtml_directiveTruncate_loop1 fuel value s n =
    match back_to_rune_start mfuel s n with Ok m => Some (go_exit m) | _ => None end.
Proof.
  intros Hb Hs k. induction k as [|k IH]; intros n fuel mfuel Hk Hn Hf Hm.
  - assert (n = (-1)%Z) as -> by lia. destruct fuel as [|fuel]; [lia|].
    cbn [src_soyhtml_directiveTruncate_loop1]. destruct mfuel; reflexivity.
  - destruct fuel as [|fuel]; [lia|]. cbn [src_soyhtml_directiveTruncate_loop1].
    assert (0 <= n)%Z as Hn0 by lia.
    unfold go_index_b. rewrite go_index_in by lia.
    destruct (nth_error s (Z.to_nat n)) as [c|] eqn:E.
    2:{ apply nth_error_None in E. unfold go_len in Hn. lia. }
    cbn [go_bind].
    assert (c < 256) as Hc.
    { rewrite Forall_forall in Hb. apply Hb. eapply nth_error_In. exact E. }
    rewrite (st_rune_start_bits c Hc).
    assert (Hmodel : back_to_rune_start mfuel s n =
                     if rune_start c then Ok n else match mfuel with O => OutOfFuel | S f => back_to_rune_start f s (n - 1)%Z end).
    { destruct mfuel; cbn [back_to_rune_start]; replace (n <? 0)%Z with false by lia; rewrite E; reflexivity. }
    rewrite Hmodel. destruct (rune_start c); cbn [negb]; [reflexivity|].
    destruct mfuel as [|mf]; [lia|].
    unfold st_small in Hs. rewrite st_wrap64 by lia.
    apply IH; lia.
Qed.

Lemma st_go_slice_take (s : bstr) (m : Z) : (0 <= m <= go_len s)%Z -> go_slice s 0%Z m = Some (take (Z.to_nat m) s).
Proof.
  intros H. unfold go_slice. replace (orb _ _) with false by lia.
  rewrite Z.sub_0_r. change (Z.to_nat 0) with O. cbn [drop]. reflexivity.
Qed.

(* what follows the argument checks, for a value whose String() is s, longer than maxLen *)
Definition st_trunc_result (s : bstr) (n : Z) (e : bool) : option value :=
  match truncate s n e with Ok r => Some (VStr r) | _ => None end.

Lemma trunc_tail_matches (s : bstr) (n0 : Z) (k : bstr -> option value) :
  Forall (fun c => c < 256) s -> st_small (go_len s) -> (n0 < go_len s)%Z -> (-4611686018427387904 <= n0)%Z ->
  match src_soyhtml_directiveTruncate_loop1 (Z.to_nat (go_wrap_s 64 (n0 + 2))) value s n0 with
  | None => None
  | Some (go_ret r) => Some r
  | Some (go_exit m) => go_bind (go_slice s 0%Z m) k
  end =
  match back_to_rune_start (length s) s n0 with
  | Ok m => k (take (Z.to_nat m) s)
  | _ => None
  end.
Proof.
  intros Hb Hs Hlt Hlo. unfold st_small in Hs.
  destruct (Z_lt_dec n0 (-1)) as [Hneg|Hge].
  - (* below -1: the first index panics, whatever the fuel *)
    assert (back_to_rune_start (length s) s n0 = Err e_index) as ->.
    { destruct (length s); cbn [back_to_rune_start]; replace (n0 <? 0)%Z with true by lia; reflexivity. }
    destruct (Z.to_nat (go_wrap_s 64 (n0 + 2))) as [|f]; [reflexivity|].
    cbn [src_soyhtml_directiveTruncate_loop1]. unfold go_index_b, go_index.
    replace (orb (Z.ltb n0 0) _) with true by lia. reflexivity.
  - rewrite st_wrap64 by lia.
    rewrite (trunc_loop_matches s Hb Hs (Z.to_nat (n0 + 1)) n0 (Z.to_nat (n0 + 2)) (length s) eq_refl) by (unfold go_len in *; lia).
    destruct (back_to_rune_start (length s) s n0) as [m| | | | |] eqn:E; try reflexivity.
    apply st_back_range in E. rewrite st_go_slice_take by lia. reflexivity.
Qed.

(* |truncate:n  and  |truncate:n,e  on a value whose String() is s *)
Theorem truncate_matches_source (v : value) (st_string : value -> option bstr) (s : bstr) (n : Z) (e : bool) :
  st_string v = Some s -> Forall (fun c => c < 256) s -> st_small (go_len s) -> (-4611686018427387904 <= n)%Z ->
  let run args := st_V src_soyhtml_directiveTruncate_V st_string v args in
  let expect e := if (Z.of_nat (length s) <=? n)%Z then Some v else st_trunc_result s n e in
  run [VInt n] = expect true /\ run [VInt n; VBool e] = expect e.
Proof.
  intros Hv Hb Hs Hlo run expect. unfold run, expect, st_trunc_result, truncate, src_soyhtml_directiveTruncate_V, src_soyhtml_directiveTruncate. clear run expect.
  repeat match goal with
         | |- context [go_index (?a :: ?l) ?i] =>
             let r := eval vm_compute in (go_index (a :: l) i) in change (go_index (a :: l) i) with r
         | |- context [go_len (?a :: ?l)] =>
             let r := eval vm_compute in (go_len (a :: l)) in change (go_len (a :: l)) with r
         end.
  cbn [go_bind]. change (src_soyhtml_isInt value st_vkind (VInt n)) with true.
  cbn [negb st_as_int_v go_bind]. rewrite Hv. cbn [go_bind]. cbv zeta.
  change (Z.of_nat (length s)) with (go_len s).
  destruct (Z.leb_spec (go_len s) n) as [Hle|Hgt]; [split; reflexivity|].
  cbn [Z.eqb Pos.eqb nth_error Z.to_nat Pos.to_nat Pos.iter_op Nat.add st_as_bool_v go_bind negb].
  unfold st_small in Hs.
  (* from here on the cases are split on the MODEL's side (is the flag set? is n above 3?); the source's own tests,
     whatever their shape, are then decided by lia (st_decide_ifs) *)
  assert (Hfin : forall (n1 : Z) (e1 : bool) (k : bstr -> option value),
             (n1 <= n)%Z -> (-4611686018427387904 <= n1)%Z ->
             (forall o, k o = Some (VStr (o ++ (if e1 then dots else [])))) ->
             match src_soyhtml_directiveTruncate_loop1 (Z.to_nat (go_wrap_s 64 (n1 + 2))) value s n1 with
             | None => None
             | Some (go_ret r) => Some r
             | Some (go_exit m) => go_bind (go_slice s 0%Z m) k
             end =
             match bind (back_to_rune_start (length s) s n1) (fun m => Ok (take (Z.to_nat m) s ++ (if e1 then dots else []))) with
             | Ok r => Some (VStr r)
             | _ => None
             end).
  { intros n1 e1 k Hn1 Hlo1 Hk. rewrite (trunc_tail_matches s n1 k Hb Hs) by lia.
    destruct (back_to_rune_start (length s) s n1); cbn [bind]; try reflexivity. apply Hk. }
  assert (Hdots : forall o : bstr, o ++ [] = o) by (intros; apply app_nil_r).
  split.
  - destruct (Z_lt_dec 3 n) as [H3|H3]; st_decide_ifs; cbv iota.
    + rewrite (st_wrap64 (n - 3)) by lia. apply (Hfin (n - 3)%Z true); [lia|lia|reflexivity].
    + apply (Hfin n false); [lia|lia|]. intros o. now rewrite Hdots.
  - destruct e; cbv iota.
    + destruct (Z_lt_dec 3 n) as [H3|H3]; st_decide_ifs; cbv iota.
      * rewrite (st_wrap64 (n - 3)) by lia. apply (Hfin (n - 3)%Z true); [lia|lia|reflexivity].
      * apply (Hfin n false); [lia|lia|]. intros o. now rewrite Hdots.
    + st_decide_ifs; cbv iota. apply (Hfin n false); [lia|lia|]. intros o. now rewrite Hdots.
Qed.
