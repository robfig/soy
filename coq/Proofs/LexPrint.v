(* The expression-mode scanner on the text the printer model (Model/AstPrint.v print_node) produces:
   it sends exactly the items of Spec/ExprSyntax.v tokens_of, up to positions.

   This file holds the combinators (parentheses, binary operators, lists with separators); the induction
   over the expression (lex_print_gen) and [lex_ok], the lexical well-formedness the statement needs
   beyond wf_expr, are in Proofs/LexPrintMain.v. *)
From Soy Require Import Model.Bytes Model.Utf8 Model.Num Model.Values Model.Outcome Model.Ast Model.Token Model.NumLit Model.Quote
  Model.AstPrint Generated.Tables Model.Lexer Spec.ExprSyntax
  Proofs.Utf8Proofs Proofs.MsgIdProofs Proofs.ExprParserProofs Proofs.LexerPrim Proofs.LexerStates
  Proofs.LexTokens Proofs.LexNumbers Proofs.LexStrings Proofs.LexExpr.
From Coq Require Import ZifyBool Lia.
Open Scope Z_scope.

Lemma fexp_cons c s : (c = 32 \/ c = 41 \/ c = 93 \/ c = 44 \/ c = 58 \/ c = 124 \/ c = 125)%N -> fexp (c :: s).
Proof. intros H. cbn. tauto. Qed.

(* the bytes that may follow a printed expression, as a test: [fexp_head c s eq_refl] for a given byte *)
Definition fexp_b (c : N) : bool := existsb (N.eqb c) [32; 41; 93; 44; 58; 124; 125; 47]%N.
Lemma fexp_head c s : fexp_b c = true -> fexp (c :: s).
Proof. unfold fexp_b. cbn. lia. Qed.

Section Comb.
Variable uni_letter uni_digit : Z -> bool.
Hypothesis letter_ascii : forall c, (c < 128)%N -> uni_letter (Z.of_N c) = ((65 <=? c) && (c <=? 90) || (97 <=? c) && (c <=? 122))%N.
Hypothesis digit_ascii : forall c, (c < 128)%N -> uni_digit (Z.of_N c) = digit_b c.
Hypothesis letter_eof : uni_letter (-1) = false.
Hypothesis digit_eof : uni_digit (-1) = false.
Variable inp : bstr.
Variable base : Z.
Notation L := (lexes uni_letter uni_digit inp base).

(* every lemma of this section takes the four hypotheses, whether its proof needs them or not, so that all of them
   have the same leading arguments outside the section (notation W below and in the files that use them) *)
Set Default Proof Using "letter_ascii digit_ascii letter_eof digit_eof".

(* an item whose type is known to end (or not to end) a term *)
Lemma L_eq_term P F txt ts t : L P F txt ts (eq t) -> ends_term t = true -> L P F txt ts term.
Proof. intros H E. eapply lexes_weaken; [exact H|auto|auto|]. intros ty <-. exact E. Qed.
Lemma L_eq_opnd P F txt ts t : L P F txt ts (eq t) -> ends_term t = false -> L P F txt ts opnd.
Proof. intros H E. eapply lexes_weaken; [exact H|auto|auto|]. intros ty <-. exact E. Qed.

Lemma L_weaken (P P' : N -> Prop) (F F' : bstr -> Prop) txt ts (Q Q' : N -> Prop) :
  L P F txt ts Q -> (forall ty, P' ty -> P ty) -> (forall s, F' s -> F s) -> (forall ty, Q ty -> Q' ty) -> L P' F' txt ts Q'.
Proof. apply lexes_weaken. Qed.

(* a fragment behind an item of known type *)
Lemma L_eq_P t (P : N -> Prop) F txt ts Q : L P F txt ts Q -> P t -> L (eq t) F txt ts Q.
Proof. intros H Ht. eapply lexes_weaken; [exact H| |auto|auto]. intros ty <-. exact Ht. Qed.

Lemma L_anyF P (F : bstr -> Prop) txt ts Q : L P anys txt ts Q -> L P F txt ts Q.
Proof. intros H. eapply lexes_weaken; [exact H|auto|intros; exact I|auto]. Qed.
Lemma L_anyP (P : N -> Prop) F txt ts Q : L anyty F txt ts Q -> L P F txt ts Q.
Proof. intros H. eapply lexes_weaken; [exact H|intros; exact I|auto|auto]. Qed.

Definition T_lp : N * bstr := (itemLeftParen, [40%N]).
Definition T_rp : N * bstr := (itemRightParen, [41%N]).

Lemma L_lparen P F : L P F [40%N] [T_lp] opnd.
Proof. apply L_anyP, L_anyF. apply (L_eq_opnd _ _ _ _ _ (lexes_punct uni_letter uni_digit letter_ascii digit_ascii letter_eof digit_eof inp base 40%N itemLeftParen eq_refl) eq_refl). Qed.
Lemma L_rparen P F : L P F [41%N] [T_rp] term.
Proof. apply L_anyP, L_anyF. apply (L_eq_term _ _ _ _ _ (lexes_punct uni_letter uni_digit letter_ascii digit_ascii letter_eof digit_eof inp base 41%N itemRightParen eq_refl) eq_refl). Qed.

(* ( e ) *)
Lemma L_paren P txt ts : L opnd fexp txt ts term -> L P fexp ([40%N] ++ txt ++ [41%N]) ([T_lp] ++ ts ++ [T_rp]) term.
Proof.
  intros H. eapply lexes_seq; [apply (L_lparen P anys)| | |].
  - eapply lexes_seq; [exact H|apply (L_rparen term fexp)| |].
    + intros s _. cbn. lia.
    + auto.
  - intros s Hs. exact I.
  - auto.
Qed.

(* " op " between two operands *)
Lemma L_sp_tok_sp (P : N -> Prop) (F : bstr -> Prop) w t :
  L P F w [(t, w)] (eq t) -> (forall s, F (32%N :: s)) -> ends_term t = false ->
  L P anys ([32%N] ++ w ++ [32%N]) [(t, w)] opnd.
Proof.
  intros H HF Ht.
  change [(t, w)] with ([] ++ [(t, w)] ++ (@nil (N * bstr))).
  eapply lexes_seq; [apply (lexes_space uni_letter uni_digit letter_ascii digit_ascii letter_eof digit_eof inp base P)| | |].
  - eapply lexes_seq; [exact H|apply (L_eq_opnd _ _ _ _ t (lexes_space uni_letter uni_digit letter_ascii digit_ascii letter_eof digit_eof inp base (eq t)) Ht)| |].
    + intros s _. apply HF.
    + auto.
  - intros s _. exact I.
  - auto.
  Unshelve. all: exact anys.
Qed.

Lemma L_binop op : L term anys ([32%N] ++ binop_name op ++ [32%N]) [(op_tok_typ op, binop_name op)] opnd.
Proof.
  assert (Hsp : forall s, sp_follows (32%N :: s)) by (intros; exact I).
  assert (Hst : forall s, stops (32%N :: s)) by (intros; cbn; split; [lia|reflexivity]).
  destruct op;
    match goal with |- context [binop_name ?o] => let v := eval vm_compute in (binop_name o) in change (binop_name o) with v end;
    match goal with |- context [op_tok_typ ?o] => let v := eval vm_compute in (op_tok_typ o) in change (op_tok_typ o) with v end.
  - (* * *) eapply lexes_weaken; [apply (L_sp_tok_sp anyty anys _ _ (lexes_punct uni_letter uni_digit letter_ascii digit_ascii letter_eof digit_eof inp base 42%N itemMul eq_refl)); [intros; exact I|reflexivity]|intros; exact I|auto|auto].
  - (* / *) eapply lexes_weaken; [apply (L_sp_tok_sp anyty sp_follows _ _ (lexes_div uni_letter uni_digit letter_ascii digit_ascii letter_eof digit_eof inp base)); [exact Hsp|reflexivity]|intros; exact I|auto|auto].
  - (* % *) eapply lexes_weaken; [apply (L_sp_tok_sp anyty anys _ _ (lexes_punct uni_letter uni_digit letter_ascii digit_ascii letter_eof digit_eof inp base 37%N itemMod eq_refl)); [intros; exact I|reflexivity]|intros; exact I|auto|auto].
  - (* + *) eapply lexes_weaken; [apply (L_sp_tok_sp anyty anys _ _ (lexes_punct uni_letter uni_digit letter_ascii digit_ascii letter_eof digit_eof inp base 43%N itemAdd eq_refl)); [intros; exact I|reflexivity]|intros; exact I|auto|auto].
  - (* - *) apply (L_sp_tok_sp term anys _ _ (lexes_sub uni_letter uni_digit letter_ascii digit_ascii letter_eof digit_eof inp base)); [intros; exact I|reflexivity].
  - (* == *) eapply lexes_weaken; [apply (L_sp_tok_sp anyty anys _ _ (lexes_eqeq uni_letter uni_digit letter_ascii digit_ascii letter_eof digit_eof inp base)); [intros; exact I|reflexivity]|intros; exact I|auto|auto].
  - (* != *) eapply lexes_weaken; [apply (L_sp_tok_sp anyty anys _ _ (lexes_cmp2 uni_letter uni_digit letter_ascii digit_ascii letter_eof digit_eof inp base 33%N itemNotEq ltac:(right; right; split; reflexivity))); [intros; exact I|reflexivity]|intros; exact I|auto|auto].
  - (* > *) eapply lexes_weaken; [apply (L_sp_tok_sp anyty sp_follows _ _ (lexes_cmp1 uni_letter uni_digit letter_ascii digit_ascii letter_eof digit_eof inp base 62%N itemGt ltac:(right; split; reflexivity))); [exact Hsp|reflexivity]|intros; exact I|auto|auto].
  - (* >= *) eapply lexes_weaken; [apply (L_sp_tok_sp anyty anys _ _ (lexes_cmp2 uni_letter uni_digit letter_ascii digit_ascii letter_eof digit_eof inp base 62%N itemGte ltac:(right; left; split; reflexivity))); [intros; exact I|reflexivity]|intros; exact I|auto|auto].
  - (* < *) eapply lexes_weaken; [apply (L_sp_tok_sp anyty sp_follows _ _ (lexes_cmp1 uni_letter uni_digit letter_ascii digit_ascii letter_eof digit_eof inp base 60%N itemLt ltac:(left; split; reflexivity))); [exact Hsp|reflexivity]|intros; exact I|auto|auto].
  - (* <= *) eapply lexes_weaken; [apply (L_sp_tok_sp anyty anys _ _ (lexes_cmp2 uni_letter uni_digit letter_ascii digit_ascii letter_eof digit_eof inp base 60%N itemLte ltac:(left; split; reflexivity))); [intros; exact I|reflexivity]|intros; exact I|auto|auto].
  - (* or *) eapply lexes_weaken; [apply (L_sp_tok_sp anyty stops _ _ (lexes_word uni_letter uni_digit letter_ascii digit_ascii letter_eof digit_eof inp base 111%N [114%N] ltac:(lia) eq_refl eq_refl ltac:(discriminate) ltac:(discriminate))); [exact Hst|reflexivity]|intros; exact I|auto|auto].
  - (* and *) eapply lexes_weaken; [apply (L_sp_tok_sp anyty stops _ _ (lexes_word uni_letter uni_digit letter_ascii digit_ascii letter_eof digit_eof inp base 97%N [110%N; 100%N] ltac:(lia) eq_refl eq_refl ltac:(discriminate) ltac:(discriminate))); [exact Hst|reflexivity]|intros; exact I|auto|auto].
  - (* ?: *) eapply lexes_weaken; [apply (L_sp_tok_sp anyty anys _ _ (lexes_elvis uni_letter uni_digit letter_ascii digit_ascii letter_eof digit_eof inp base)); [intros; exact I|reflexivity]|intros; exact I|auto|auto].
Qed.

Notation W lem := (lem uni_letter uni_digit letter_ascii digit_ascii letter_eof digit_eof inp base).

(* sequencing with the side conditions last *)
Lemma L_seq P F1 t1 ts1 Q1 P2 F2 t2 ts2 Q2 :
  L P F1 t1 ts1 Q1 -> L P2 F2 t2 ts2 Q2 -> (forall s, F2 s -> F1 (t2 ++ s)) -> (forall ty, Q1 ty -> P2 ty) ->
  L P F2 (t1 ++ t2) (ts1 ++ ts2) Q2.
Proof. apply lexes_seq. Qed.

(* a space in front of a fragment, or behind it, sends nothing *)
Lemma L_sp_l P F txt ts Q : L P F txt ts Q -> L P F ([32%N] ++ txt) ts Q.
Proof. intros H. exact (L_seq _ _ _ _ _ _ _ _ _ _ (W lexes_space P) H (fun _ _ => I) (fun _ H => H)). Qed.
Lemma L_sp_r P (F : bstr -> Prop) txt ts Q : L P F txt ts Q -> (forall s, F (32%N :: s)) -> L P anys (txt ++ [32%N]) ts Q.
Proof. intros H HF. rewrite <- (app_nil_r ts). exact (L_seq _ _ _ _ _ _ _ _ _ _ H (W lexes_space Q) (fun s _ => HF s) (fun _ H => H)). Qed.

Lemma fexp_sp s : fexp (32%N :: s). Proof. cbn. lia. Qed.
Lemma fexp_app_sp t s : fexp (([32%N] ++ t) ++ s). Proof. cbn. lia. Qed.

(* a1 op a2 *)
Lemma L_bin_P (P : N -> Prop) op t1 ts1 t2 ts2 : L P fexp t1 ts1 term -> L opnd fexp t2 ts2 term ->
  L P fexp (t1 ++ [32%N] ++ binop_name op ++ [32%N] ++ t2) (ts1 ++ [(op_tok_typ op, binop_name op)] ++ ts2) term.
Proof.
  intros H1 H2.
  replace ([32%N] ++ binop_name op ++ [32%N] ++ t2) with (([32%N] ++ binop_name op ++ [32%N]) ++ t2) by (repeat rewrite <- app_assoc; reflexivity).
  refine (L_seq _ _ _ _ _ _ _ _ _ _ H1 (L_seq _ _ _ _ _ _ _ _ _ _ (L_binop op) H2 _ _) _ _).
  - intros; exact I.
  - auto.
  - intros s _. rewrite <- app_assoc. apply fexp_sp.
  - auto.
Qed.
Lemma L_bin op t1 ts1 t2 ts2 : L opnd fexp t1 ts1 term -> L opnd fexp t2 ts2 term ->
  L opnd fexp (t1 ++ [32%N] ++ binop_name op ++ [32%N] ++ t2) (ts1 ++ [(op_tok_typ op, binop_name op)] ++ ts2) term.
Proof. apply L_bin_P. Qed.

Definition T_tern : N * bstr := (itemTernIf, [63%N]).
Definition T_col : N * bstr := (itemColon, [58%N]).
Definition T_com : N * bstr := (itemComma, [44%N]).
Definition T_rb : N * bstr := (itemRightBracket, [93%N]).
Definition T_lb : N * bstr := (itemLeftBracket, [91%N]).

Lemma L_sp_q_sp : L term anys [32; 63; 32]%N [T_tern] opnd.
Proof.
  change [32; 63; 32]%N with ([32%N] ++ [63%N] ++ [32%N]).
  eapply lexes_weaken; [apply (L_sp_tok_sp anyty _ _ _ (W lexes_ternif)); [intros; exact I|reflexivity]|intros; exact I|auto|auto].
Qed.
Lemma L_sp_colon_sp : L term anys [32; 58; 32]%N [T_col] opnd.
Proof.
  change [32; 58; 32]%N with ([32%N] ++ [58%N] ++ [32%N]).
  eapply lexes_weaken; [apply (L_sp_tok_sp anyty anys _ _ (W lexes_punct 58%N itemColon eq_refl)); [intros; exact I|reflexivity]|intros; exact I|auto|auto].
Qed.

(* c ? x : y *)
Lemma L_tern_P (P : N -> Prop) tc tsc tx tsx ty tsy : L P fexp tc tsc term -> L opnd fexp tx tsx term -> L opnd fexp ty tsy term ->
  L P fexp (tc ++ [32; 63; 32]%N ++ tx ++ [32; 58; 32]%N ++ ty) (tsc ++ [T_tern] ++ tsx ++ [T_col] ++ tsy) term.
Proof.
  intros Hc Hx Hy.
  refine (L_seq _ _ _ _ _ _ _ _ _ _ Hc (L_seq _ _ _ _ _ _ _ _ _ _ L_sp_q_sp (L_seq _ _ _ _ _ _ _ _ _ _ Hx (L_seq _ _ _ _ _ _ _ _ _ _ L_sp_colon_sp Hy _ _) _ _) _ _) _ _).
  - intros; exact I.
  - auto.
  - intros s _. cbn. lia.
  - auto.
  - intros; exact I.
  - auto.
  - intros s _. cbn. lia.
  - auto.
Qed.
Lemma L_tern tc tsc tx tsx ty tsy : L opnd fexp tc tsc term -> L opnd fexp tx tsx term -> L opnd fexp ty tsy term ->
  L opnd fexp (tc ++ [32; 63; 32]%N ++ tx ++ [32; 58; 32]%N ++ ty) (tsc ++ [T_tern] ++ tsx ++ [T_col] ++ tsy) term.
Proof. apply L_tern_P. Qed.

(* not a *)
Definition s_not_w : bstr := [110; 111; 116]%N.
Lemma L_not_P (P : N -> Prop) t ts : L opnd fexp t ts term -> L P fexp (s_not_w ++ [32%N] ++ t) ([(itemNot, s_not_w)] ++ ts) term.
Proof.
  intros H.
  assert (Hw : L P stops s_not_w [(itemNot, s_not_w)] opnd).
  { apply L_anyP. apply (L_eq_opnd _ _ _ _ _ (W lexes_word 110%N [111; 116]%N ltac:(lia) eq_refl eq_refl ltac:(discriminate) ltac:(discriminate)) eq_refl). }
  change ts with ([] ++ ts).
  refine (L_seq _ _ _ _ _ _ _ _ _ _ Hw (L_seq _ _ _ _ _ _ _ _ _ _ (W lexes_space opnd) H _ _) _ _).
  - intros; exact I.
  - auto.
  - intros s _. cbn. split; [lia|reflexivity].
  - auto.
Qed.
Lemma L_not t ts : L opnd fexp t ts term -> L opnd fexp (s_not_w ++ [32%N] ++ t) ([(itemNot, s_not_w)] ++ ts) term.
Proof. apply L_not_P. Qed.

(* - a : the operand's text does not start with a digit *)
Lemma L_neg t ts : L opnd fexp t ts term -> (forall s, head_ascii (t ++ s) /\ head_digit (t ++ s) = false) ->
  L opnd fexp ([45%N] ++ t) ([(itemNegate, [45%N])] ++ ts) term.
Proof.
  intros H Hh.
  refine (L_seq _ _ _ _ _ _ _ _ _ _ (L_eq_opnd _ _ _ _ _ (W lexes_negate) eq_refl) H _ _).
  - intros s _. apply Hh.
  - auto.
Qed.

(* ---------- separated lists ---------- *)

Fixpoint sepj (sep : list (N * bstr)) (ls : list (list (N * bstr))) : list (N * bstr) :=
  match ls with
  | [] => []
  | [x] => x
  | x :: r => x ++ sep ++ sepj sep r
  end.

Lemma L_sepj septxt sepT : L term anys septxt sepT opnd -> (forall s, fexp (septxt ++ s)) ->
  forall items : list (bstr * list (N * bstr)), items <> [] ->
  (forall it, In it items -> L opnd fexp (fst it) (snd it) term) ->
  L opnd fexp (join septxt (map fst items)) (sepj sepT (map snd items)) term.
Proof.
  intros Hsep Hf. induction items as [|[t ts] items IH]; intros Hne Hall; [congruence|].
  destruct items as [|it2 items].
  - cbn [map join sepj fst snd]. apply (Hall (t, ts)). left. reflexivity.
  - change (join septxt (map fst ((t, ts) :: it2 :: items))) with (t ++ septxt ++ join septxt (map fst (it2 :: items))).
    change (sepj sepT (map snd ((t, ts) :: it2 :: items))) with (ts ++ sepT ++ sepj sepT (map snd (it2 :: items))).
    refine (L_seq _ _ _ _ _ _ _ _ _ _ (Hall (t, ts) (or_introl eq_refl)) (L_seq _ _ _ _ _ _ _ _ _ _ Hsep (IH ltac:(discriminate) _) _ _) _ _).
    + intros it Hin. apply Hall. right. exact Hin.
    + intros; exact I.
    + auto.
    + intros s _. rewrite <- app_assoc. apply Hf.
    + auto.
Qed.

Lemma L_comma : L term anys [44%N] [T_com] opnd.
Proof. apply L_anyP. apply (L_eq_opnd _ _ _ _ _ (W lexes_punct 44%N itemComma eq_refl) eq_refl). Qed.

Lemma L_comma_sp : L term anys [44; 32]%N [T_com] opnd.
Proof.
  change [44; 32]%N with ([44%N] ++ [32%N]). change [T_com] with ([T_com] ++ []).
  refine (L_seq _ _ _ _ _ _ _ _ _ _ L_comma (W lexes_space opnd) _ _); [intros; exact I|auto].
Qed.

(* what is required of an identifier: an ASCII word that is not a keyword *)
Definition plain_word (w : bstr) : Prop :=
  exists c0 cs, w = c0 :: cs /\ (c0 < 128)%N /\ letter_b c0 = true /\ alnums cs /\ assoc_s w builtin_idents = None.

Lemma L_ident w : plain_word w -> L anyty stops w [(itemIdent, w)] term.
Proof.
  intros (c0 & cs & -> & H0 & H1 & H2 & H3).
  assert (Hwt : word_type (c0 :: cs) = itemIdent) by (unfold word_type; rewrite H3; reflexivity).
  pose proof (W lexes_word c0 cs H0 H1 H2) as Hw. rewrite Hwt in Hw.
  apply (L_eq_term _ _ _ _ _ (Hw ltac:(discriminate) ltac:(discriminate)) eq_refl).
Qed.

(* name(args) *)
Lemma L_func_P (P : N -> Prop) name (items : list (bstr * list (N * bstr))) : plain_word name ->
  (forall it, In it items -> L opnd fexp (fst it) (snd it) term) ->
  L P fexp (name ++ [40%N] ++ join [44%N] (map fst items) ++ [41%N])
              ((itemIdent, name) :: T_lp :: sepj [T_com] (map snd items) ++ [T_rp]) term.
Proof.
  intros Hn Hall.
  change ((itemIdent, name) :: T_lp :: sepj [T_com] (map snd items) ++ [T_rp]) with ([(itemIdent, name)] ++ [T_lp] ++ sepj [T_com] (map snd items) ++ [T_rp]).
  destruct items as [|it items].
  - cbn [map join sepj app].
    refine (L_seq _ _ _ _ _ _ _ _ _ _ (L_anyP P _ _ _ _ (L_ident name Hn)) (L_seq _ _ _ _ _ _ _ _ _ _ (L_lparen term anys) (L_rparen opnd fexp) _ _) _ _).
    + intros; exact I.
    + auto.
    + intros s _. cbn. split; [lia|reflexivity].
    + auto.
  - refine (L_seq _ _ _ _ _ _ _ _ _ _ (L_anyP P _ _ _ _ (L_ident name Hn))
             (L_seq _ _ _ _ _ _ _ _ _ _ (L_lparen term anys)
                (L_seq _ _ _ _ _ _ _ _ _ _ (L_sepj [44%N] [T_com] L_comma _ (it :: items) ltac:(discriminate) Hall) (L_rparen term fexp) _ _) _ _) _ _).
    + intros s. cbn. lia.
    + intros s _. cbn. lia.
    + auto.
    + intros; exact I.
    + auto.
    + intros s _. cbn. split; [lia|reflexivity].
    + auto.
Qed.
Lemma L_func name (items : list (bstr * list (N * bstr))) : plain_word name ->
  (forall it, In it items -> L opnd fexp (fst it) (snd it) term) ->
  L opnd fexp (name ++ [40%N] ++ join [44%N] (map fst items) ++ [41%N])
              ((itemIdent, name) :: T_lp :: sepj [T_com] (map snd items) ++ [T_rp]) term.
Proof. apply L_func_P. Qed.

(* [a, b, c] *)
Lemma L_list_P (P : N -> Prop) (items : list (bstr * list (N * bstr))) :
  (forall it, In it items -> L opnd fexp (fst it) (snd it) term) ->
  L P fexp ([91%N] ++ join [44; 32]%N (map fst items) ++ [93%N]) (T_lb :: sepj [T_com] (map snd items) ++ [T_rb]) term.
Proof.
  intros Hall.
  assert (Hlb : L P anys [91%N] [T_lb] opnd).
  { apply L_anyP. apply (L_eq_opnd _ _ _ _ _ (W lexes_punct 91%N itemLeftBracket eq_refl) eq_refl). }
  assert (Hrb : forall P', L P' fexp [93%N] [T_rb] term).
  { intros P'. apply L_anyP, L_anyF. apply (L_eq_term _ _ _ _ _ (W lexes_punct 93%N itemRightBracket eq_refl) eq_refl). }
  change (T_lb :: sepj [T_com] (map snd items) ++ [T_rb]) with ([T_lb] ++ sepj [T_com] (map snd items) ++ [T_rb]).
  destruct items as [|it items].
  - cbn [map join sepj app]. refine (L_seq _ _ _ _ _ _ _ _ _ _ Hlb (Hrb opnd) _ _); [intros; exact I|auto].
  - refine (L_seq _ _ _ _ _ _ _ _ _ _ Hlb
             (L_seq _ _ _ _ _ _ _ _ _ _ (L_sepj [44; 32]%N [T_com] L_comma_sp _ (it :: items) ltac:(discriminate) Hall) (Hrb term) _ _) _ _).
    + intros s. cbn. lia.
    + intros s _. cbn. lia.
    + auto.
    + intros; exact I.
    + auto.
Qed.
Lemma L_list (items : list (bstr * list (N * bstr))) :
  (forall it, In it items -> L opnd fexp (fst it) (snd it) term) ->
  L opnd fexp ([91%N] ++ join [44; 32]%N (map fst items) ++ [93%N]) (T_lb :: sepj [T_com] (map snd items) ++ [T_rb]) term.
Proof. apply L_list_P. Qed.

(* ---------- map literals ---------- *)

Lemma L_colon_sp : L anyty anys [58; 32]%N [T_col] opnd.
Proof.
  change [58; 32]%N with ([58%N] ++ [32%N]). change [T_col] with ([T_col] ++ []).
  refine (L_seq _ _ _ _ _ _ _ _ _ _ (L_eq_opnd _ _ _ _ _ (W lexes_punct 58%N itemColon eq_refl) eq_refl) (W lexes_space opnd) _ _); [intros; exact I|auto].
Qed.

Definition quoted (rs : list N) : bstr := 39%N :: string_of_runes rs ++ [39%N].

(* 'key': value *)
Lemma L_entry rs vt vts : Forall valid_scalar rs -> str_body_ok 39 rs = true -> L opnd fexp vt vts term ->
  L opnd fexp (quoted rs ++ [58; 32]%N ++ vt) ((itemString, quoted rs) :: T_col :: vts) term.
Proof.
  intros Hv Hok H.
  change ((itemString, quoted rs) :: T_col :: vts) with ([(itemString, quoted rs)] ++ [T_col] ++ vts).
  refine (L_seq _ _ _ _ _ _ _ _ _ _ (L_anyP opnd _ _ _ _ (W lexes_string rs Hv Hok)) (L_seq _ _ _ _ _ _ _ _ _ _ L_colon_sp H _ _) _ _).
  - intros; exact I.
  - auto.
  - intros; exact I.
  - intros; exact I.
Qed.

Lemma L_empty_map_P (P : N -> Prop) : L P fexp [91; 58; 93]%N [T_lb; T_col; T_rb] term.
Proof.
  change [91; 58; 93]%N with ([91%N] ++ [58%N] ++ [93%N]). change [T_lb; T_col; T_rb] with ([T_lb] ++ [T_col] ++ [T_rb]).
  refine (L_seq _ _ _ _ _ _ _ _ _ _ (L_anyP P _ _ _ _ (L_eq_opnd _ _ _ _ _ (W lexes_punct 91%N itemLeftBracket eq_refl) eq_refl))
           (L_seq _ _ _ _ _ _ _ _ _ _ (L_anyP opnd _ _ _ _ (L_eq_opnd _ _ _ _ _ (W lexes_punct 58%N itemColon eq_refl) eq_refl))
              (L_anyP opnd _ _ _ _ (L_anyF _ fexp _ _ _ (L_eq_term _ _ _ _ _ (W lexes_punct 93%N itemRightBracket eq_refl) eq_refl))) _ _) _ _).
  - intros; exact I.
  - auto.
  - intros; exact I.
  - auto.
Qed.
Lemma L_empty_map : L opnd fexp [91; 58; 93]%N [T_lb; T_col; T_rb] term.
Proof. apply L_empty_map_P. Qed.

(* ---------- data references ---------- *)

(* what follows the key or an access: another access, or what follows an expression *)
Definition facc (s : bstr) : Prop := fexp s \/ match s with c :: _ => (c = 46 \/ c = 63 \/ c = 91)%N | [] => False end.

Lemma facc_stops s : facc s -> stops s /\ head_digit s = false.
Proof.
  intros [H|H].
  - split; [apply fexp_stops; exact H|]. destruct s as [|c s]; [reflexivity|]. cbn in H |- *. unfold digit_b. lia.
  - destruct s as [|c s]; [contradiction|]. cbn. unfold alnum_b, letter_b, digit_b. repeat split; lia.
Qed.

Lemma L_nil (P : N -> Prop) F : L P F [] [] P.
Proof.
  intros l s Hs HP _. exists 0%nat, l. split; [reflexivity|]. split; [exact Hs|]. split; [constructor; apply unsent_refl|exact HP].
Qed.

Lemma head_digit_app (cs s : bstr) : head_digit (cs ++ s) = match cs with [] => head_digit s | c :: _ => digit_b c end.
Proof. destruct cs; reflexivity. Qed.

(* .ident and ?.ident *)
Lemma L_acc_key (ns : bool) k : alnums k -> head_digit k = false ->
  L term facc ((if ns then [63; 46] else [46])%N ++ k)
       [(if ns then itemQuestionDotIdent else itemDotIdent, (if ns then [63; 46] else [46])%N ++ k)] term.
Proof.
  intros Hk Hd.
  assert (HF : forall s, facc s -> stops s /\ head_digit (k ++ s) = false).
  { intros s Hs. destruct (facc_stops s Hs) as [A B]. split; [exact A|]. rewrite head_digit_app. destruct k; [exact B|exact Hd]. }
  destruct ns; cbn [app].
  - eapply lexes_weaken; [apply (L_eq_term _ _ _ _ _ (W lexes_qdot k false Hk) eq_refl)|intros; exact I|exact HF|auto].
  - eapply lexes_weaken; [apply (L_eq_term _ _ _ _ _ (W lexes_dot k false Hk) eq_refl)|intros; exact I|exact HF|auto].
Qed.

(* .N and ?.N *)
Lemma L_acc_index (ns : bool) ds : all_digits ds -> ds <> [] ->
  L term facc ((if ns then [63; 46] else [46])%N ++ ds)
       [(if ns then itemQuestionDotIndex else itemDotIndex, (if ns then [63; 46] else [46])%N ++ ds)] term.
Proof.
  intros Hd Hne. unfold all_digits in Hd.
  assert (Hk : alnums ds).
  { unfold alnums. apply forallb_forall. intros c Hc. rewrite Forall_forall in Hd. specialize (Hd c Hc). unfold alnum_b. rewrite Hd.
    rewrite Bool.orb_true_r, Bool.andb_true_r. unfold digit_b in Hd. lia. }
  assert (HF : forall s, facc s -> stops s /\ head_digit (ds ++ s) = true).
  { intros s Hs. destruct (facc_stops s Hs) as [A B]. split; [exact A|]. rewrite head_digit_app. destruct ds as [|d ds]; [congruence|].
    inversion Hd; subst. assumption. }
  destruct ns; cbn [app].
  - eapply lexes_weaken; [apply (L_eq_term _ _ _ _ _ (W lexes_qdot ds true Hk) eq_refl)|intros; exact I|exact HF|auto].
  - eapply lexes_weaken; [apply (L_eq_term _ _ _ _ _ (W lexes_dot ds true Hk) eq_refl)|intros; exact I|exact HF|auto].
Qed.

(* [e] and ?[e] *)
Lemma L_acc_expr (ns : bool) t ts : L opnd fexp t ts term ->
  L term facc ((if ns then [63; 91] else [91])%N ++ t ++ [93%N])
       ((if ns then itemQuestionKey else itemLeftBracket, (if ns then [63; 91] else [91])%N) :: ts ++ [T_rb]) term.
Proof.
  intros H.
  assert (Hrb : L term facc [93%N] [T_rb] term).
  { apply L_anyP, L_anyF. apply (L_eq_term _ _ _ _ _ (W lexes_punct 93%N itemRightBracket eq_refl) eq_refl). }
  assert (Hopen : L term anys (if ns then [63; 91] else [91])%N [(if ns then itemQuestionKey else itemLeftBracket, (if ns then [63; 91] else [91])%N)] opnd).
  { destruct ns; apply L_anyP; [apply (L_eq_opnd _ _ _ _ _ (W lexes_qkey) eq_refl)|apply (L_eq_opnd _ _ _ _ _ (W lexes_punct 91%N itemLeftBracket eq_refl) eq_refl)]. }
  change ((if ns then itemQuestionKey else itemLeftBracket, (if ns then [63; 91] else [91])%N) :: ts ++ [T_rb])
    with ([(if ns then itemQuestionKey else itemLeftBracket, (if ns then [63; 91] else [91])%N)] ++ ts ++ [T_rb]).
  refine (L_seq _ _ _ _ _ _ _ _ _ _ Hopen (L_seq _ _ _ _ _ _ _ _ _ _ H Hrb _ _) _ _).
  - intros s _. cbn. lia.
  - auto.
  - intros; exact I.
  - auto.
Qed.

(* a chain of accesses *)
Definition acc_head (t : bstr) : Prop := match t with c :: _ => (c = 46 \/ c = 63 \/ c = 91)%N | [] => False end.

Lemma L_accs : forall accs : list (bstr * list (N * bstr)),
  (forall it, In it accs -> L term facc (fst it) (snd it) term /\ acc_head (fst it)) ->
  L term facc (concat_b (map fst accs)) (concat (map snd accs)) term.
Proof.
  induction accs as [|[t ts] accs IH]; intros Hall.
  - apply L_nil.
  - cbn [map concat_b concat fst snd].
    refine (L_seq _ _ _ _ _ _ _ _ _ _ (proj1 (Hall (t, ts) (or_introl eq_refl))) (IH _) _ _).
    + intros it Hin. apply Hall. right. exact Hin.
    + intros s Hs. destruct accs as [|[t2 ts2] accs]; [exact Hs|].
      right. cbn [map concat_b fst]. destruct (Hall (t2, ts2) (or_intror (or_introl eq_refl))) as [_ Hh]. cbn [fst] in Hh.
      destruct t2 as [|c t2]; [contradiction|]. exact Hh.
    + auto.
Qed.

(* $key accesses *)
Lemma L_dataref_P (P : N -> Prop) key (accs : list (bstr * list (N * bstr))) : alnums key ->
  (forall it, In it accs -> L term facc (fst it) (snd it) term /\ acc_head (fst it)) ->
  L P fexp ([36%N] ++ key ++ concat_b (map fst accs)) ((itemDollarIdent, 36%N :: key) :: concat (map snd accs)) term.
Proof.
  intros Hk Hall.
  change ((itemDollarIdent, 36%N :: key) :: concat (map snd accs)) with ([(itemDollarIdent, 36%N :: key)] ++ concat (map snd accs)).
  replace ([36%N] ++ key ++ concat_b (map fst accs)) with ((36%N :: key) ++ concat_b (map fst accs)) by reflexivity.
  refine (L_seq _ _ _ _ _ _ _ _ _ _ (L_anyP P _ _ _ _ (L_eq_term _ _ _ _ _ (W lexes_dollar key Hk) eq_refl))
            (L_weaken _ _ _ _ _ _ _ _ (L_accs accs Hall) (fun ty H => H) (fun s (H : fexp s) => or_introl H) (fun ty H => H)) _ _).
  - intros s Hs. assert (Hf : facc (concat_b (map fst accs) ++ s)).
    { destruct accs as [|[t2 ts2] accs]; [left; exact Hs|]. right. cbn [map concat_b fst].
      destruct (Hall (t2, ts2) (or_introl eq_refl)) as [_ Hh]. cbn [fst] in Hh. destruct t2 as [|c t2]; [contradiction|]. exact Hh. }
    apply facc_stops. exact Hf.
  - auto.
Qed.
Lemma L_dataref key (accs : list (bstr * list (N * bstr))) : alnums key ->
  (forall it, In it accs -> L term facc (fst it) (snd it) term /\ acc_head (fst it)) ->
  L opnd fexp ([36%N] ++ key ++ concat_b (map fst accs)) ((itemDollarIdent, 36%N :: key) :: concat (map snd accs)) term.
Proof. apply L_dataref_P. Qed.

End Comb.
