(* C06: the walker never crashes and never diverges (for every
   configuration, node, state and fuel); at depth 0 the position register stays
   inside the entry template's source, so the code that runs inside errRecover
   cannot panic either; hence [render_no_escape_lemma].  The other entry points
   ([eval_expr_no_escape_lemma], [parse_globals_no_escape_lemma],
   [range_terminates_lemma]) are in Proofs/SafetyEntry.v. *)
From Coq Require Import Lia ZifyBool.
From Soy Require Import Model.Bytes Model.Num Model.Values Model.Outcome Model.Ast
  Model.Escape Model.Directives Model.Print Generated.Tables Model.Interp Model.InterpSafety Model.Globals
  Spec.Safety Proofs.ValueProofs Proofs.InterpLogic Proofs.InterpSub Proofs.SafetyPure.
Open Scope N_scope.

(* A. no crash, no divergence: a uniform invariant of the walker       *)

Definition allowed_nc (e : fault) : Prop :=
  match e with FCrash _ | FDiverge => False | _ => True end.

Lemma nf_pure_nc {A} (o : outcome A) : nf o -> inv_pure_ok allowed_nc o.
Proof. unfold inv_pure_ok. destruct o; cbn; tauto. Qed.

Lemma nc_pure_sites : pure_sites (@inv_pure_ok allowed_nc).
Proof.
  constructor.
  - exact I.
  - intros. apply nf_pure_nc, pans_nf, pans_arith.
  - intros. apply nf_pure_nc, pans_nf, pans_compare.
  - intros. apply nf_pure_nc, pans_nf, pans_value_string.
  - intros. apply nf_pure_nc, pans_nf, pans_print_writes.
  - intros name ar vs H. apply nf_pure_nc, pans_nf. eapply pans_apply_func_table; eauto.
Qed.

Lemma nc_conditions : inv_conditions (fun _ => True) (fun _ _ => True) (fun _ _ => True) allowed_nc.
Proof. constructor; intros; try exact I; try (split; exact I). Qed.

(* the walker on ANY node, in ANY state, under ANY configuration and fuel *)
Theorem walk_no_escape cf fuel n st : no_escape (fst (walk cf fuel n st)).
Proof.
  destruct (walk cf fuel n st) as [r st'] eqn:H.
  pose proof (inv_walk _ _ _ _ nc_conditions cf nc_pure_sites fuel n st r st' I H) as H1.
  cbn [fst]. destruct r; cbn in H1 |- *; try exact I; destruct H1 as [_ []].
Qed.

(* B. below the entry template the position register is not touched    *)

Definition Rdeep (a b : mstate) : Prop :=
  depth_ b = depth_ a /\ (depth_ a <> 0%nat -> cur b = cur a).

Lemma Rdeep_frame a b : depth_ b = depth_ a -> cur b = cur a -> Rdeep a b.
Proof. intros H1 H2. split; [exact H1 | intros _; exact H2]. Qed.
Lemma Rdeep_trans a b c : Rdeep a b -> Rdeep b c -> Rdeep a c.
Proof. intros [H1 H2] [H3 H4]. split; [congruence|]. intros Hd. rewrite H4 by congruence. apply H2. exact Hd. Qed.

Lemma deep_conditions : inv_conditions (fun _ => True) Rdeep Rdeep (fun _ => True).
Proof.
  constructor; intros; try exact I; try (split; [exact I|]);
    try (apply Rdeep_frame; reflexivity).
  - eapply Rdeep_trans; eauto.
  - eapply Rdeep_trans; eauto.
  - (* set_cur *)
    split; [reflexivity|]. intros Hd. cbn. destruct (Nat.eqb_spec (depth_ st) 0); [contradiction | reflexivity].
  - (* write ok *)
    match goal with H : write _ _ = _ |- _ => apply write_inv in H; inversion H; subst end;
      apply Rdeep_frame; reflexivity.
  - (* write err *)
    match goal with H : write _ _ = _ |- _ => apply write_inv in H; inversion H; subst end;
      apply Rdeep_frame; reflexivity.
  - (* m_set *)
    match goal with H : m_set _ _ _ = _ |- _ => rewrite m_set_eq in H end.
    destruct (ctx st) as [|f r]; [discriminate|].
    match goal with H : (_, _) = (_, _) |- _ => inversion H; subst end.
    apply Rdeep_frame; destruct (f_origin f); reflexivity.
  - (* pop *) match goal with H : Rdeep (pushed _) _ |- _ => destruct H as [Hd1 Hd2] end.
    split; [exact Hd1 | exact Hd2].
  - match goal with H : Rdeep (pushed _) _ |- _ => exact H end.
  - (* buf pop *) match goal with H : Rdeep (buf_pushed _) _ |- _ => destruct H as [Hd1 Hd2] end.
    split; [exact Hd1 | exact Hd2].
  - match goal with H : Rdeep (buf_pushed _) _ |- _ => destruct H as [Hd1 Hd2] end.
    split; [exact Hd1 | exact Hd2].
  - match goal with H : Rdeep (buf_pushed _) _ |- _ => exact H end.
  - (* leave *)
    match goal with H : Rdeep (entered _ _ _) _ |- _ => destruct H as [Hd1 Hd2] end.
    apply Rdeep_frame; [reflexivity|]. cbn. rewrite Hd2 by (cbn; discriminate). reflexivity.
  - match goal with H : Rdeep (entered _ _ _) _ |- _ => destruct H as [Hd1 Hd2] end.
    apply Rdeep_frame; [reflexivity|]. cbn. rewrite Hd2 by (cbn; discriminate). reflexivity.
Qed.

Theorem walk_deep cf fuel n st r st' : walk cf fuel n st = (r, st') -> Rdeep st st'.
Proof.
  intros H.
  pose proof (inv_walk _ _ _ _ deep_conditions cf pure_sites_any fuel n st r st' I H) as H1.
  destruct (classify r); destruct H1; assumption.
Qed.

(* C. at depth 0 the position register stays inside the source         *)

Require Import Soy.Proofs.SafetyNodes.

Lemma pure_sites_sub_any (allowed : fault -> Prop) :
  (forall e, allowed e) -> pure_sites_sub (@rel_pure_ok allowed).
Proof.
  intros Ha. constructor; intros; unfold rel_pure_ok;
    match goal with |- match classify ?o with _ => _ end => destruct (classify o); [exact I | apply Ha] end.
Qed.

Section Pos.
Variable B : N.

Definition Rpos (a b : mstate) : Prop :=
  depth_ b = depth_ a /\ (cur a <= B -> cur b <= B).

Lemma Rpos_frame a b : depth_ b = depth_ a -> cur b = cur a -> Rpos a b.
Proof. intros H1 H2. split; [exact H1 | rewrite H2; tauto]. Qed.

Lemma pos_rel_conditions : rel_conditions Rpos (fun _ => True).
Proof.
  constructor; intros; try exact I; try (apply Rpos_frame; reflexivity).
  - (* trans *) destruct H as [H1 H2], H0 as [H3 H4]. split; [congruence | tauto].
  - (* restore *) destruct H as [H1 H2]. split; [exact H1|]. intros Hc. cbn.
    destruct (Nat.eqb (depth_ st2) 0); [exact Hc | apply H2; exact Hc].
Qed.

Lemma pos_le_syn p i m d b b' : pos_le B (NMsg p i m d b) = true -> pos_le B (NMsg p 0 [] [] b') = true.
Proof. exact (fun H => H). Qed.

Lemma pos_set_cur n : node_all (pos_le B) n = true ->
  rel_spec Rpos (fun _ => True) (modify (fun st => set_cur st (pos_of n))).
Proof.
  intros Hn. apply rel_modify. intros st. split; [reflexivity|]. intros Hc. cbn.
  destruct (Nat.eqb (depth_ st) 0); [|exact Hc].
  apply node_all_head in Hn. unfold pos_le in Hn. lia.
Qed.

(* a callee runs below the entry template: it leaves the register alone *)
Lemma pos_call_enter (w : node -> M value) callee cd :
  (forall st r st', w (t_node callee) st = (r, st') -> Rdeep st st') ->
  rel_spec Rpos (fun _ => True) (call_enter w callee cd).
Proof.
  intros Hw st r st' H. rewrite call_enter_eq in H. cbn zeta in H.
  destruct (w (t_node callee) (entered st callee cd)) as [r1 st2] eqn:Hrun.
  cbn [fst snd] in H. inversion H; subst.
  split; [|match goal with |- match classify ?o with _ => _ end => destruct (classify o); exact I end].
  apply Hw in Hrun. destruct Hrun as [_ Hcur].
  apply Rpos_frame; [reflexivity|]. cbn. rewrite Hcur by (cbn; discriminate). reflexivity.
Qed.

Theorem walk_pos cf : forall fuel n, node_all (pos_le B) n = true ->
  rel_spec Rpos (fun _ => True) (walk cf fuel n).
Proof.
  induction fuel as [|fuel IH]; intros n Hn.
  - rewrite walk_O. apply (rel_lift _ _ pos_rel_conditions). exact I.
  - rewrite walk_S.
    apply (phi_walk_body_sub cf _ _ (rel_logic_sub _ _ pos_rel_conditions) (pure_sites_sub_any _ (fun _ => I))).
    + apply pos_set_cur. exact Hn.
    + intros n' Hin. apply IH. exact (node_all_sub (pos_le B) pos_le_syn n n' Hn Hin).
    + intros callee cd _. apply pos_call_enter. intros st r st'. apply walk_deep.
Qed.
End Pos.

Lemma find_template_some ts name t : find_template ts name = Some t -> In t ts /\ t_name t = name.
Proof.
  induction ts as [|x r IH]; cbn [find_template]; [discriminate|].
  destruct (bstr_eqb_spec (t_name x) name) as [He|Hne].
  - intros H. injection H as <-. split; [left; reflexivity | exact He].
  - intros H. destruct (IH H). split; [right; assumption | assumption].
Qed.

(* the hypothesis actually used: the positions of every template lie inside the source recorded under
   its name ([reg_ok] adds unique names and recorded files, which is what makes this hold for the
   registries the compiler builds) *)
Theorem render_no_escape_pos cf fuel name data_id data cl bl first_id :
  reg_pos_ok (c_reg cf) = true ->
  no_escape (rr_outcome (render cf fuel name data_id data cl bl first_id)).
Proof.
  intros Hreg. unfold render.
  destruct (find_template (r_templates (c_reg cf)) name) as [t|] eqn:Hf; [|exact I].
  apply find_template_some in Hf as [Hin Hname].
  set (st0 := init_state _ _ _ _ _ _).
  destruct (walk cf fuel (t_node t) st0) as [r st] eqn:Hrun.
  pose proof (walk_no_escape cf fuel (t_node t) st0) as Hnc. rewrite Hrun in Hnc. cbn [fst] in Hnc.
  destruct r; cbn [rr_outcome]; try exact I; try exact Hnc.
  (* Err: the recover handler computes file and line *)
  destruct (assoc_s name (r_sources (c_reg cf))) as [src|] eqn:Hsrc; [|exact I].
  destruct (assoc_s name (r_files (c_reg cf))) as [file|]; [|exact I].
  assert (Hcur : cur st <= N.of_nat (length src)).
  { unfold reg_pos_ok in Hreg. pose proof (forallb_In _ _ _ Hreg Hin) as Ht.
    unfold template_pos_ok in Ht. rewrite Hname, Hsrc in Ht.
    destruct (walk_pos (N.of_nat (length src)) cf fuel (t_node t) Ht _ _ _ Hrun) as [[_ Hc] _].
    apply Hc. cbn. lia. }
  unfold line_number. destruct (N.leb_spec (cur st) (N.of_nat (length src))); [exact I | lia].
Qed.

Lemma reg_ok_pos reg : reg_ok reg = true -> reg_pos_ok reg = true.
Proof. unfold reg_ok. intros H. apply andb_prop in H as [_ H]. exact H. Qed.

Theorem render_no_escape_lemma cf fuel name data_id data cl bl first_id :
  reg_ok (c_reg cf) = true ->
  no_escape (rr_outcome (render cf fuel name data_id data cl bl first_id)).
Proof. intros H. apply render_no_escape_pos. apply reg_ok_pos. exact H. Qed.
