(* C11: lemmas about Model/MsgParts.v, in this order:
   soymsg.Parts inverts the printer of placeholder strings;
   ast.MsgNode.Placeholder on flat and on PO-plural messages;
   rendering with a bundle, for every walker [w] (open recursion). *)
From Coq Require Import Permutation.
From Soy Require Import Model.Bytes Model.Outcome Model.Num Model.Values Model.Ast Model.MsgId
  Model.Interp Model.MsgParts Spec.MsgCat Proofs.BytesBase.
Open Scope N_scope.

Lemma beq_neq x y : bstr_eqb x y = false <-> x <> y.
Proof. exact (bstr_eqb_neq x y). Qed.

Lemma ph_char_lbrace : ph_char 123 = false. Proof. reflexivity. Qed.
Lemma ph_char_rbrace : ph_char 125 = false. Proof. reflexivity. Qed.

Lemma flush_nil k : flush [] k = k. Proof. reflexivity. Qed.
Lemma flush_cons raw k : raw <> [] -> flush raw k = PText raw :: k.
Proof. destruct raw; [congruence | reflexivity]. Qed.

Lemma scan_name_ok n rest seen :
  forallb ph_char n = true -> (n <> [] \/ seen = true) ->
  scan_name seen (n ++ 125 :: rest) = Some n.
Proof.
  revert seen; induction n as [|c n IH]; intros seen Hall Hne.
  - cbn [app scan_name]. rewrite ph_char_rbrace. destruct Hne as [Hne | ->]; [congruence|]. reflexivity.
  - cbn [forallb] in Hall. apply Bool.andb_true_iff in Hall as [Hc Hn].
    cbn [app scan_name]. rewrite Hc. rewrite (IH true Hn (or_intror eq_refl)). reflexivity.
Qed.

Lemma scan_name_some seen s nm :
  scan_name seen s = Some nm ->
  forallb ph_char nm = true /\ (nm <> [] \/ seen = true) /\ exists rest, s = nm ++ 125 :: rest.
Proof.
  revert seen nm; induction s as [|c s IH]; intros seen nm; cbn [scan_name]; [discriminate|].
  destruct (ph_char c) eqn:Hc.
  - destruct (scan_name true s) as [nm'|] eqn:E; [|discriminate]. intros [= <-].
    destruct (IH _ _ E) as [Hall [_ [rest ->]]].
    split; [cbn [forallb]; rewrite Hc, Hall; reflexivity|]. split; [left; discriminate|].
    exists rest. reflexivity.
  - destruct (c =? 125) eqn:E125; cbn [andb]; [|discriminate].
    destruct seen; [|discriminate]. intros [= <-]. apply N.eqb_eq in E125. subst c.
    split; [reflexivity|]. split; [right; reflexivity|]. exists s. reflexivity.
Qed.

(* bytes of a recognised match are passed over *)
Lemma parts_go_skip pre s raw : parts_go (pre ++ s) (length pre) raw = parts_go s 0 raw.
Proof.
  induction pre as [|c pre IH]; [reflexivity|].
  cbn [app length parts_go]. exact IH.
Qed.

Lemma parts_go_ph n rest raw :
  name_ok n ->
  parts_go (123 :: n ++ 125 :: rest) 0 raw = flush raw (PPh n :: parts_go rest 0 []).
Proof.
  intros [Hne Hall]. cbn [parts_go]. rewrite N.eqb_refl.
  rewrite (scan_name_ok n rest false Hall (or_introl Hne)).
  f_equal. f_equal.
  replace (n ++ 125 :: rest) with ((n ++ [125]) ++ rest) by (rewrite <- app_assoc; reflexivity).
  replace (S (length n)) with (length (n ++ [125])) by (rewrite app_length; cbn [length]; lia).
  apply parts_go_skip.
Qed.

(* the text that follows a text run of a printed part list: nothing, or a placeholder token *)
Definition brace_start (rest : bstr) : Prop := rest = [] \/ exists r, rest = 123 :: r.

Lemma scan_name_some_app seen s nm rest : scan_name seen s = Some nm -> scan_name seen (s ++ rest) = Some nm.
Proof.
  intros H. destruct (scan_name_some _ _ _ H) as (Hall & Hne & r & ->). rewrite <- app_assoc.
  exact (scan_name_ok nm (r ++ rest) seen Hall Hne).
Qed.

(* a string without '{' that starts [t ++ rest] lies inside [t] when [rest] is empty or starts with '{' *)
Lemma prefix_within x t rest r' :
  t ++ rest = x ++ r' -> (forall c, In c x -> c <> 123) -> brace_start rest -> exists suf, t = x ++ suf.
Proof.
  revert t; induction x as [|a x IH]; intros t E Hx Hr.
  - exists t. reflexivity.
  - destruct t as [|c t].
    + cbn [app] in E. destruct Hr as [-> | [r ->]]; [discriminate|].
      injection E as <- _. exfalso. apply (Hx 123); [left; reflexivity | reflexivity].
    + cbn [app] in E. injection E as -> E.
      destruct (IH t E (fun c Hc => Hx c (or_intror Hc)) Hr) as [suf ->]. exists suf. reflexivity.
Qed.

Lemma name_rbrace_no_lbrace nm : forallb ph_char nm = true -> forall c, In c (nm ++ [125]) -> c <> 123.
Proof.
  intros Hall c Hc ->. apply in_app_or in Hc as [Hc|Hc].
  - rewrite forallb_forall in Hall. specialize (Hall 123 Hc). rewrite ph_char_lbrace in Hall. discriminate.
  - destruct Hc as [Hc|[]]. discriminate.
Qed.

Lemma has_match_false t :
  has_match t = false -> forall pre suf, t = pre ++ 123 :: suf -> scan_name false suf = None.
Proof.
  induction t as [|c t IH]; intros H pre suf E.
  - destruct pre; discriminate.
  - cbn [has_match] in H. apply Bool.orb_false_iff in H as [H1 H2].
    destruct pre as [|c' pre]; cbn [app] in E; injection E as -> ->.
    + rewrite N.eqb_refl in H1. cbn [andb] in H1. destruct (scan_name false suf); [discriminate | reflexivity].
    + apply (IH H2 pre suf eq_refl).
Qed.

(* scanning a text run that is followed by nothing or by a '{': either no '{'
   of it starts a match, or the leftmost match lies inside the run *)
Lemma parts_go_run t rest raw :
  brace_start rest ->
  (has_match t = false /\ parts_go (t ++ rest) 0 raw = parts_go rest 0 (raw ++ t)) \/
  (exists pre nm suf, t = pre ++ 123 :: nm ++ 125 :: suf /\ name_ok nm /\
     parts_go (t ++ rest) 0 raw = flush (raw ++ pre) (PPh nm :: parts_go (suf ++ rest) 0 [])).
Proof.
  intros Hr. revert raw; induction t as [|c t IH]; intros raw.
  - left. split; [reflexivity|]. cbn [app]. rewrite app_nil_r. reflexivity.
  - cbn [app parts_go has_match].
    (* when no match starts at c, the head joins the text collected so far *)
    assert (Hnext : (has_match t = false /\ parts_go (t ++ rest) 0 (raw ++ [c]) = parts_go rest 0 (raw ++ c :: t)) \/
                    (exists pre nm suf, c :: t = pre ++ 123 :: nm ++ 125 :: suf /\ name_ok nm /\
                       parts_go (t ++ rest) 0 (raw ++ [c]) = flush (raw ++ pre) (PPh nm :: parts_go (suf ++ rest) 0 []))).
    { destruct (IH (raw ++ [c])) as [[Hm Heq] | (pre & nm & suf & -> & Hnm & Heq)]; [left|right].
      - split; [exact Hm|]. rewrite Heq, <- app_assoc. reflexivity.
      - exists (c :: pre), nm, suf. split; [reflexivity|]. split; [exact Hnm|]. rewrite Heq, <- app_assoc. reflexivity. }
    destruct (N.eqb_spec c 123) as [->|Hne]; [destruct (scan_name false (t ++ rest)) as [nm|] eqn:E|].
    + destruct (scan_name_some _ _ _ E) as [Hall [[Hne|Hf] [r' Er]]]; [|discriminate].
      assert (t ++ rest = (nm ++ [125]) ++ r') as Er' by (rewrite Er, <- app_assoc; reflexivity).
      destruct (prefix_within _ _ _ _ Er' (name_rbrace_no_lbrace nm Hall) Hr) as [suf ->].
      right. exists [], nm, suf. split; [cbn [app]; rewrite <- !app_assoc; reflexivity|].
      split; [split; assumption|]. rewrite app_nil_r. f_equal. f_equal.
      rewrite <- app_assoc.
      replace (S (length nm)) with (length (nm ++ [125])) by (rewrite app_length; cbn [length]; lia).
      apply parts_go_skip.
    + assert (scan_name false t = None) as Et.
      { destruct (scan_name false t) as [nm|] eqn:E'; [|reflexivity].
        rewrite (scan_name_some_app _ _ _ rest E') in E. discriminate. }
      rewrite Et. exact Hnext.
    + exact Hnext.
Qed.

Lemma parts_go_text t rest raw :
  has_match t = false -> brace_start rest -> parts_go (t ++ rest) 0 raw = parts_go rest 0 (raw ++ t).
Proof.
  intros Hm Hr. destruct (parts_go_run t rest raw Hr) as [[_ E] | (pre & nm & suf & -> & [Hne Hall] & _)]; [exact E|].
  pose proof (has_match_false _ Hm pre _ eq_refl) as E. rewrite (scan_name_ok nm suf false Hall (or_introl Hne)) in E. discriminate.
Qed.

Lemma print_parts_brace_start l :
  match l with PText _ :: _ => False | _ => True end -> brace_start (print_parts l).
Proof.
  destruct l as [|[t|n] r]; intros H; [left; reflexivity | contradiction |].
  right. cbn [print_parts flat_map print_part]. eexists. reflexivity.
Qed.

Lemma print_parts_ph n r : print_parts (PPh n :: r) = 123 :: n ++ 125 :: print_parts r.
Proof. cbn [print_parts flat_map print_part app]. rewrite <- app_assoc. reflexivity. Qed.
Lemma print_parts_text t r : print_parts (PText t :: r) = t ++ print_parts r.
Proof. reflexivity. Qed.
Lemma print_parts_app l1 l2 : print_parts (l1 ++ l2) = print_parts l1 ++ print_parts l2.
Proof. unfold print_parts. apply flat_map_app. Qed.

(* Parts inverts the printer on clean part lists *)
Theorem parts_print_clean l : parts_clean l -> parts (print_parts l) = l.
Proof.
  unfold parts. induction l as [|[t|n] r IH]; intros H.
  - reflexivity.
  - cbn [parts_clean] in H. destruct H as [Hne [Hm [Hnext Hr]]].
    rewrite print_parts_text.
    rewrite parts_go_text; [|exact Hm|apply print_parts_brace_start, Hnext].
    cbn [app]. destruct r as [|[t'|n'] r'].
    + cbn [print_parts flat_map parts_go]. apply flush_cons, Hne.
    + contradiction.
    + specialize (IH Hr). rewrite print_parts_ph in *. cbn [parts_clean] in Hr. destruct Hr as [Hn' Hr'].
      rewrite parts_go_ph in * by exact Hn'. rewrite flush_cons by exact Hne.
      rewrite flush_nil in IH. rewrite IH. reflexivity.
  - cbn [parts_clean] in H. destruct H as [Hn Hr].
    rewrite print_parts_ph. rewrite parts_go_ph by exact Hn. rewrite flush_nil. f_equal. apply IH, Hr.
Qed.

Lemma print_parts_flush raw k : print_parts (flush raw k) = raw ++ print_parts k.
Proof. destruct raw; reflexivity. Qed.

Lemma print_parts_merge_go l raw : print_parts (merge_go l raw) = raw ++ print_parts l.
Proof.
  revert raw; induction l as [|[t|n] r IH]; intros raw; cbn [merge_go].
  - rewrite print_parts_flush. reflexivity.
  - rewrite IH, print_parts_text, app_assoc. reflexivity.
  - rewrite print_parts_flush. rewrite !print_parts_ph. rewrite IH. reflexivity.
Qed.

Lemma print_parts_merge l : print_parts (merge_texts l) = print_parts l.
Proof. unfold merge_texts. rewrite print_parts_merge_go. reflexivity. Qed.

(* Parts of a printed part list is its normal form, whenever the normal form's
   texts do not look like placeholders and the names are well formed *)
Theorem parts_print l : parts_clean (merge_texts l) -> parts (print_parts l) = merge_texts l.
Proof. intros H. rewrite <- print_parts_merge. apply parts_print_clean, H. Qed.

(* sufficient: no raw text contains a brace *)
Lemma no_brace_has_match t : no_brace t -> has_match t = false.
Proof.
  induction t as [|c t IH]; intros H; [reflexivity|].
  cbn [has_match]. rewrite IH by (intros x Hx; apply H; right; exact Hx).
  destruct (N.eqb_spec c 123) as [->|Hne]; [destruct (H 123 (or_introl eq_refl)); congruence | reflexivity].
Qed.

Lemma no_brace_app x y : no_brace x -> no_brace y -> no_brace (x ++ y).
Proof. intros Hx Hy c Hc. apply in_app_or in Hc as [Hc|Hc]; [apply Hx | apply Hy]; exact Hc. Qed.

Lemma merge_go_clean l raw :
  (forall t, In (PText t) l -> no_brace t) -> (forall n, In (PPh n) l -> name_ok n) -> no_brace raw ->
  parts_clean (merge_go l raw).
Proof.
  revert raw; induction l as [|[t|n] r IH]; intros raw Ht Hn Hraw; cbn [merge_go].
  - destruct raw as [|c raw]; cbn [flush parts_clean]; [exact I|].
    split; [discriminate|]. split; [apply no_brace_has_match, Hraw | auto].
  - apply IH.
    + intros t' H'. apply Ht. right. exact H'.
    + intros n' H'. apply Hn. right. exact H'.
    + apply no_brace_app; [exact Hraw | apply Ht; left; reflexivity].
  - assert (parts_clean (PPh n :: merge_go r [])) as Hc.
    { cbn [parts_clean]. split; [apply Hn; left; reflexivity|]. apply IH.
      - intros t' H'. apply Ht. right. exact H'.
      - intros n' H'. apply Hn. right. exact H'.
      - intros c Hc. destruct Hc. }
    destruct raw as [|c raw]; cbn [flush]; [exact Hc|].
    cbn [parts_clean]. split; [discriminate|]. split; [apply no_brace_has_match, Hraw|]. split; [exact I | exact Hc].
Qed.

Theorem parts_print_no_brace l :
  (forall t, In (PText t) l -> no_brace t) -> (forall n, In (PPh n) l -> name_ok n) ->
  parts (print_parts l) = merge_texts l.
Proof.
  intros Ht Hn. apply parts_print. unfold merge_texts. apply merge_go_clean; [exact Ht | exact Hn |].
  intros c Hc. destruct Hc.
Qed.

Lemma write_body_print body : write_body body = print_parts (body_parts body).
Proof.
  unfold write_body, body_parts, print_parts.
  induction body as [|n r IH]; [reflexivity|].
  cbn [flat_map]. rewrite flat_map_app, IH. f_equal.
  destruct n; cbn [writeph part_of_node flat_map print_part app]; try reflexivity.
  all: rewrite app_nil_r; reflexivity.
Qed.

(* a {msg} without plural, as MsgId.v names it *)
Definition npart_part (p : npart) : list part :=
  match p with NmText t => [PText t] | NmPh n => [PPh n] | NmPlural _ _ _ => [] end.
Definition nflat (p : npart) : Prop := match p with NmPlural _ _ _ => False | _ => True end.

Lemma phstring_flat l : Forall nflat l -> write_fp_list true l = print_parts (flat_map npart_part l).
Proof.
  unfold write_fp_list, print_parts. induction 1 as [|p r Hp _ IH]; [reflexivity|].
  cbn [flat_map]. rewrite flat_map_app, IH. f_equal.
  destruct p; cbn [write_fp npart_part flat_map print_part app]; [rewrite app_nil_r; reflexivity | | contradiction].
  rewrite app_nil_r. reflexivity.
Qed.

(* Parts (PlaceholderString m) = the message's own part list *)
Theorem parts_phstring l :
  Forall nflat l ->
  (forall t, In (NmText t) l -> no_brace t) -> (forall n, In (NmPh n) l -> name_ok n) ->
  parts (write_fp_list true l) = merge_texts (flat_map npart_part l).
Proof.
  intros Hf Ht Hn. rewrite phstring_flat by exact Hf. apply parts_print_no_brace.
  - intros t Hin. apply in_flat_map in Hin as [p [Hp Hin]]. destruct p; cbn [npart_part] in Hin.
    + destruct Hin as [[= <-]|[]]. apply Ht, Hp.
    + destruct Hin as [[=]|[]].
    + destruct Hin.
  - intros n Hin. apply in_flat_map in Hin as [p [Hp Hin]]. destruct p; cbn [npart_part] in Hin.
    + destruct Hin as [[=]|[]].
    + destruct Hin as [[= <-]|[]]. apply Hn, Hp.
    + destruct Hin.
Qed.

(* ---- Validate's read-back check (repair 1664d1a) compares the NAMES of the
        placeholder parts only; that is enough ---- *)

Lemma list_eqb_eq x y : list_eqb x y = true <-> x = y.
Proof.
  revert y; induction x as [|a x IH]; destruct y as [|c y]; cbn [list_eqb]; try (split; [discriminate | discriminate]); [tauto|].
  rewrite Bool.andb_true_iff, bstr_eqb_eq, IH. split; [intros [-> ->]; reflexivity | intros [= -> ->]; auto].
Qed.

Definition cnt (ps : list part) : nat := length (part_names ps).

Lemma part_names_flush raw k : part_names (flush raw k) = part_names k.
Proof. destruct raw; reflexivity. Qed.
Lemma part_names_ph n k : part_names (PPh n :: k) = n :: part_names k.
Proof. reflexivity. Qed.
Lemma part_names_text t k : part_names (PText t :: k) = part_names k.
Proof. reflexivity. Qed.

Lemma parts_go_names_ok s : forall skip raw, Forall name_ok (part_names (parts_go s skip raw)).
Proof.
  induction s as [|c s IH]; intros skip raw; cbn [parts_go].
  - rewrite part_names_flush. constructor.
  - destruct skip; [|apply IH].
    destruct (c =? 123); [|apply IH].
    destruct (scan_name false s) as [nm|] eqn:E; [|apply IH].
    rewrite part_names_flush, part_names_ph. constructor; [|apply IH].
    destruct (scan_name_some _ _ _ E) as [Hall [[Hne|Hf] _]]; [split; assumption | discriminate].
Qed.

(* Parts finds at least the real placeholders *)
Lemma cnt_lower l :
  (forall n, In (PPh n) l -> name_ok n) ->
  forall t raw, (cnt l <= cnt (parts_go (t ++ print_parts l) 0 raw))%nat.
Proof.
  unfold cnt. induction l as [|[t1|n] l1 IH]; intros Hok.
  - intros t raw. cbn [part_names flat_map length]. lia.
  - intros t raw. rewrite print_parts_text, app_assoc, part_names_text.
    apply IH. intros n Hn. apply Hok. right. exact Hn.
  - assert (forall m, In (PPh m) l1 -> name_ok m) as Hok1 by (intros m Hm; apply Hok; right; exact Hm).
    assert (name_ok n) as Hn by (apply Hok; left; reflexivity).
    intros t. remember (length t) as k eqn:Hk. revert t Hk.
    induction k as [k IHk] using lt_wf_ind. intros t Hk raw.
    destruct (parts_go_run t (print_parts (PPh n :: l1)) raw) as [[_ Heq] | [pre [nm [suf [Et [_ Heq]]]]]].
    + apply print_parts_brace_start. exact I.
    + rewrite Heq, print_parts_ph, parts_go_ph by exact Hn.
      rewrite part_names_flush, !part_names_ph. cbn [length].
      specialize (IH Hok1 [] []). cbn [app] in IH. lia.
    + rewrite Heq, part_names_flush, part_names_ph. cbn [length].
      assert (length suf < k)%nat as Hlt.
      { subst k t. rewrite !app_length. cbn [length]. rewrite app_length. cbn [length]. lia. }
      specialize (IHk (length suf) Hlt suf eq_refl []).
      rewrite !part_names_ph in *. cbn [length] in *. lia.
Qed.

(* the names decide: if Parts finds exactly the body's placeholder names, it
   finds exactly the body's parts *)
Lemma names_decide_go l :
  (forall n, In (PPh n) l -> name_ok n) ->
  forall t raw,
    part_names (parts_go (t ++ print_parts l) 0 raw) = part_names l ->
    parts_go (t ++ print_parts l) 0 raw = merge_go l (raw ++ t).
Proof.
  induction l as [|[t1|n] l1 IH]; intros Hok t raw Hnames.
  - cbn [print_parts flat_map] in *.
    destruct (parts_go_run t [] raw (or_introl eq_refl)) as [[_ Heq] | [pre [nm [suf [_ [_ Heq]]]]]].
    + rewrite Heq. reflexivity.
    + rewrite Heq, part_names_flush in Hnames. discriminate.
  - rewrite print_parts_text in *. rewrite part_names_text in Hnames.
    replace (t ++ t1 ++ print_parts l1) with ((t ++ t1) ++ print_parts l1) in * by (rewrite app_assoc; reflexivity).
    cbn [merge_go]. replace ((raw ++ t) ++ t1) with (raw ++ (t ++ t1)) by (rewrite app_assoc; reflexivity).
    apply IH; [|exact Hnames].
    intros n Hn. apply Hok. right. exact Hn.
  - assert (forall m, In (PPh m) l1 -> name_ok m) as Hok1 by (intros m Hm; apply Hok; right; exact Hm).
    assert (name_ok n) as Hn by (apply Hok; left; reflexivity).
    destruct (parts_go_run t (print_parts (PPh n :: l1)) raw) as [[_ Heq] | [pre [nm [suf [_ [_ Heq]]]]]].
    + apply print_parts_brace_start. exact I.
    + rewrite Heq, print_parts_ph, parts_go_ph in * by exact Hn.
      rewrite part_names_flush, !part_names_ph in Hnames. injection Hnames as Hnames.
      cbn [merge_go]. f_equal. f_equal.
      specialize (IH Hok1 [] [] Hnames). cbn [app] in IH. exact IH.
    + exfalso. rewrite Heq, part_names_flush, !part_names_ph in Hnames.
      pose proof (cnt_lower (PPh n :: l1) Hok suf []) as Hc. unfold cnt in Hc.
      apply (f_equal (@length bstr)) in Hnames. rewrite part_names_ph in Hc. cbn [length] in Hnames, Hc. lia.
Qed.

Theorem names_decide l :
  part_names (parts (print_parts l)) = part_names l -> parts (print_parts l) = merge_texts l.
Proof.
  intros H. unfold parts, merge_texts in *.
  assert (forall n, In (PPh n) l -> name_ok n) as Hok.
  { intros n Hn. pose proof (parts_go_names_ok (print_parts l) 0 []) as Hall. rewrite H in Hall.
    rewrite Forall_forall in Hall. apply Hall. unfold part_names. apply in_flat_map. exists (PPh n). split; [exact Hn | left; reflexivity]. }
  apply (names_decide_go l Hok [] []). exact H.
Qed.

Lemma part_names_merge_go l raw : part_names (merge_go l raw) = part_names l.
Proof.
  revert raw; induction l as [|[t|n] r IH]; intros raw; cbn [merge_go].
  - rewrite part_names_flush. reflexivity.
  - rewrite IH. reflexivity.
  - rewrite part_names_flush, !part_names_ph, IH. reflexivity.
Qed.

Theorem reads_back_sound body :
  reads_back body = true ->
  forallb flat_node body = true /\ parts (write_body body) = merge_texts (body_parts body).
Proof.
  unfold reads_back. rewrite Bool.andb_true_iff, list_eqb_eq. intros [Hf Hn]. split; [exact Hf|].
  rewrite write_body_print in *. apply names_decide, Hn.
Qed.

Theorem reads_back_iff body :
  reads_back body = true <->
  forallb flat_node body = true /\ parts (write_body body) = merge_texts (body_parts body).
Proof.
  split; [apply reads_back_sound|]. intros [Hf Hp]. unfold reads_back. rewrite Hf, Hp. cbn [andb].
  apply list_eqb_eq. unfold merge_texts. apply part_names_merge_go.
Qed.

(* the check refuses nothing that is representable: flat bodies whose normal
   form is clean pass *)
Theorem reads_back_complete body :
  forallb flat_node body = true -> parts_clean (merge_texts (body_parts body)) -> reads_back body = true.
Proof.
  intros Hf Hc. apply reads_back_iff. split; [exact Hf|].
  rewrite write_body_print. apply parts_print, Hc.
Qed.

(* a flat message: Validate = the read-back check, Msgid = the written body *)
Definition is_plural (n : node) : bool := match n with NMsgPlural _ _ _ _ _ => true | _ => false end.

Lemma flat_not_plural n : flat_node n = true -> is_plural n = false.
Proof. destruct n; cbn; congruence. Qed.

Lemma validate_loop_flat body i bodies :
  forallb flat_node body = true -> validate_loop i body bodies = Ok bodies.
Proof.
  revert i; induction body as [|n r IH]; intros i H; [reflexivity|].
  cbn [forallb] in H. apply Bool.andb_true_iff in H as [Hn Hr].
  destruct n; cbn [flat_node] in Hn; try discriminate; cbn [validate_loop]; apply IH, Hr.
Qed.

Theorem validate_flat body :
  forallb flat_node body = true ->
  (validate body = Ok tt <-> parts (write_body body) = merge_texts (body_parts body)).
Proof.
  intros Hf. unfold validate. rewrite (validate_loop_flat body 0 [body] Hf). cbn [bind forallb empty_plural_case].
  rewrite Bool.andb_true_r. destruct (reads_back body) eqn:E.
  - apply reads_back_iff in E. tauto.
  - split; [discriminate|]. intros H. assert (reads_back body = true) by (apply reads_back_iff; tauto). congruence.
Qed.

Lemma msgid_flat body : forallb flat_node body = true -> msgid body = Ok (write_body body).
Proof.
  destruct body as [|n r]; [reflexivity|]. cbn [forallb]. intros H. apply Bool.andb_true_iff in H as [Hn _].
  unfold msgid, msgidn. destruct n; cbn [flat_node] in Hn; try discriminate; reflexivity.
Qed.

(* a PO plural: one {case 1} and {default} *)
Theorem validate_plural p vn pv pc cb dflt :
  validate [NMsgPlural p vn pv [NMsgPluralCase pc 1%Z cb] dflt] = Ok tt <->
  (write_body cb <> [] /\ write_body dflt <> []) /\
  (forallb flat_node cb = true /\ parts (write_body cb) = merge_texts (body_parts cb)) /\
  (forallb flat_node dflt = true /\ parts (write_body dflt) = merge_texts (body_parts dflt)).
Proof.
  unfold validate. cbn [validate_loop bind forallb empty_plural_case]. rewrite Bool.andb_true_r.
  rewrite <- !reads_back_iff.
  destruct (write_body cb) eqn:Ec; [split; [discriminate | intros [[H _] _]; congruence]|].
  destruct (write_body dflt) eqn:Ed; [split; [discriminate | intros [[_ H] _]; congruence]|].
  destruct (reads_back cb), (reads_back dflt); cbn [andb]; split; try discriminate;
    try (intros [_ [? ?]]; discriminate); intros _; repeat split; discriminate.
Qed.

Lemma msgid_plural_case p vn pv pc cv cb dflt r :
  msgid (NMsgPlural p vn pv (NMsgPluralCase pc cv cb :: r) dflt :: []) = Ok (write_body cb) /\
  msgid_plural (NMsgPlural p vn pv (NMsgPluralCase pc cv cb :: r) dflt :: []) = Ok (write_body dflt).
Proof. split; reflexivity. Qed.

Lemma lookup_size_flat l :
  forallb flat_node l = true -> fold_right (fun x a => (lookup_size x + a)%nat) 0%nat l = length l.
Proof.
  induction l as [|n r IH]; [reflexivity|]. cbn [forallb fold_right length]. intros H.
  apply Bool.andb_true_iff in H as [Hn Hr]. rewrite (IH Hr).
  destruct n; cbn [flat_node] in Hn; try discriminate; reflexivity.
Qed.

(* on a queue of text and placeholders the search is a left-to-right scan *)
Lemma ph_lookup_flat fuel q name :
  forallb flat_node q = true -> (length q < fuel)%nat -> ph_lookup fuel q name = Ok (find_ph q name).
Proof.
  revert fuel; induction q as [|n r IH]; intros fuel Hf Hlen.
  - destruct fuel; reflexivity.
  - cbn [forallb] in Hf. apply Bool.andb_true_iff in Hf as [Hn Hr]. cbn [length] in Hlen.
    destruct fuel as [|f]; [lia|].
    destruct n; cbn [flat_node] in Hn; try discriminate; cbn [ph_lookup find_ph].
    + apply IH; [exact Hr | lia].
    + destruct (bstr_eqb name0 name); [reflexivity | apply IH; [exact Hr | lia]].
Qed.

Theorem placeholder_flat body name :
  forallb flat_node body = true -> placeholder body name = Ok (find_ph body name).
Proof.
  intros Hf. unfold placeholder, lookup_fuel. rewrite (lookup_size_flat body Hf).
  apply ph_lookup_flat; [exact Hf | lia].
Qed.

(* a PO plural: the Default list node is one level above the case body, so its
   placeholders are met first *)
Lemma ph_lookup_plural fuel p vn pv pc cv cb dflt name :
  forallb flat_node cb = true -> forallb flat_node dflt = true ->
  (4 + length dflt + length cb < fuel)%nat ->
  ph_lookup fuel [NMsgPlural p vn pv [NMsgPluralCase pc cv cb] dflt] name = Ok (find_ph (dflt ++ cb) name).
Proof.
  intros Hc Hd Hlen. destruct fuel as [|[|[|[|f]]]]; try lia.
  cbn [ph_lookup app].
  apply ph_lookup_flat.
  - rewrite forallb_app, Hc, Hd. reflexivity.
  - rewrite app_length. lia.
Qed.

Theorem placeholder_plural p vn pv pc cv cb dflt name :
  forallb flat_node cb = true -> forallb flat_node dflt = true ->
  placeholder [NMsgPlural p vn pv [NMsgPluralCase pc cv cb] dflt] name = Ok (find_ph (dflt ++ cb) name).
Proof.
  intros Hc Hd. unfold placeholder, lookup_fuel.
  apply ph_lookup_plural; [exact Hc | exact Hd |].
  cbn [fold_right lookup_size]. rewrite (lookup_size_flat cb Hc), (lookup_size_flat dflt Hd). lia.
Qed.

Lemma find_ph_some phs n :
  (exists p b, In (NMsgPlaceholder p n b) phs) ->
  exists p' b', find_ph phs n = Some b' /\ In (NMsgPlaceholder p' n b') phs.
Proof.
  intros [p [b Hin]]. induction phs as [|x r IH]; [destruct Hin|].
  destruct Hin as [->|Hin].
  - cbn [find_ph]. rewrite bstr_eqb_refl. exists p, b. split; [reflexivity | left; reflexivity].
  - destruct (IH Hin) as [p' [b' [Hf Hi]]].
    destruct x; cbn [find_ph]; try (exists p', b'; split; [exact Hf | right; exact Hi]).
    match goal with |- exists _ _, (if bstr_eqb ?m n then Some ?c else _) = _ /\ _ => destruct (bstr_eqb m n) eqn:E end.
    + apply bstr_eqb_eq in E. subst. eexists _, _. split; [reflexivity | left; reflexivity].
    + exists p', b'. split; [exact Hf | right; exact Hi].
Qed.

Lemma find_ph_same phs p n b :
  coherent phs -> In (NMsgPlaceholder p n b) phs ->
  exists p' b', find_ph phs n = Some b' /\ In (NMsgPlaceholder p' n b') phs /\ pstrip b' = pstrip b.
Proof.
  intros Hco Hin. destruct (find_ph_some phs n (ex_intro _ p (ex_intro _ b Hin))) as [p' [b' [Hf Hi]]].
  exists p', b'. split; [exact Hf|]. split; [exact Hi | apply (Hco p' p n b' b Hi Hin)].
Qed.

Lemma coherent_find phs :
  (forall p n b, In (NMsgPlaceholder p n b) phs -> exists b', find_ph phs n = Some b' /\ pstrip b' = pstrip b) ->
  coherent phs.
Proof.
  intros H p1 p2 n b1 b2 H1 H2. destruct (H _ _ _ H1) as (c1 & E1 & S1). destruct (H _ _ _ H2) as (c2 & E2 & S2).
  rewrite E1 in E2. injection E2 as <-. congruence.
Qed.

Lemma items_named_found phs tr : items_named phs tr ->
  Forall (fun i => match i with TPh _ n _ => exists b', find_ph phs n = Some b' | TText _ => True end) tr.
Proof.
  intros H. apply Forall_forall. intros [t|p n b] Hin; [exact I|].
  destruct (find_ph_some phs n (H p n b Hin)) as (_ & b' & E & _). exists b'. exact E.
Qed.

Lemma find_plural_head p vn pv cases dflt r :
  find_plural (NMsgPlural p vn pv cases dflt :: r) vn = Some (NMsgPlural p vn pv cases dflt).
Proof. cbn [find_plural]. rewrite bstr_eqb_refl. reflexivity. Qed.

Section Render.
Variable cf : cfg.
Variable plural_index : Z -> nat.
Variable bd : bundle.
Variable w : node -> M value.

Lemma eval_parts_items body phs tr :
  (forall name, placeholder body name = Ok (find_ph phs name)) ->
  items_named phs tr ->
  eval_parts w body (map item_part tr) = run_items w (map (resolve phs) tr).
Proof.
  intros Hlook H. apply items_named_found in H. induction H as [|[t|p n b] r Hi _ IH]; [reflexivity| |];
    cbn [map item_part resolve eval_parts run_items].
  - rewrite IH. reflexivity.
  - destruct Hi as [b' Hf]. rewrite Hlook, Hf, IH. reflexivity.
Qed.

Lemma items_from_named phs tr : items_from phs tr -> items_named phs tr.
Proof. intros H p n b Hin. exists p, b. apply H, Hin. Qed.

(* ... and under coherence that is the code the translation means *)
Lemma resolve_same phs tr : coherent phs -> items_from phs tr -> same_items (map (resolve phs) tr) tr.
Proof.
  intros Hco. unfold same_items. induction tr as [|[t|p n b] r IH]; intros Hfrom; cbn [map resolve]; [constructor| |].
  - constructor; [reflexivity|]. apply IH. intros p n b Hin. apply Hfrom. right. exact Hin.
  - destruct (find_ph_same phs p n b Hco (Hfrom p n b (or_introl eq_refl))) as [p' [b' [Hf [_ Hs]]]]. rewrite Hf.
    constructor; [split; [reflexivity | exact Hs]|]. apply IH. intros p0 n0 b0 Hin. apply Hfrom. right. exact Hin.
Qed.

Theorem missing_msg mp id body :
  bundle_message bd id = None -> eval_msg plural_index bd w mp id body = msg_body w mp body.
Proof. intros H. unfold eval_msg. rewrite H. reflexivity. Qed.

Theorem missing_node mp id mn ds body :
  bundle_message bd id = None ->
  walk_body_b cf plural_index bd w (NMsg mp id mn ds body) = walk_body cf w (NMsg mp id mn ds body).
Proof. intros H. unfold walk_body_b. rewrite (missing_msg mp id body H). reflexivity. Qed.

Lemma walk_body_b_other n :
  match n with NMsg _ _ _ _ _ => False | _ => True end ->
  walk_body_b cf plural_index bd w n = walk_body cf w n.
Proof. destruct n; intros H; try reflexivity. contradiction. Qed.

Theorem translated_flat mp id body tr s :
  forallb flat_node body = true -> items_named body tr ->
  bundle_message bd id = Some (new_message [] [s]) ->
  parts s = map item_part tr ->
  eval_msg plural_index bd w mp id body = run_items w (map (resolve body) tr).
Proof.
  intros Hf Hfrom Hb Hs. unfold eval_msg. rewrite Hb. cbn [new_message eval_cmsg]. rewrite Hs.
  apply (eval_parts_items body body tr); [|exact Hfrom].
  intros name. apply placeholder_flat, Hf.
Qed.

(* the translator writes the items; Parts reads them back; every slot is filled by
   rendering the first placeholder of the message that carries the slot's name *)
Theorem translation_places_values mp id body tr :
  forallb flat_node body = true -> items_named body tr ->
  parts_clean (map item_part tr) ->
  bundle_message bd id = Some (new_message [] [msgstr_of tr]) ->
  eval_msg plural_index bd w mp id body = run_items w (map (resolve body) tr).
Proof.
  intros Hf Hfrom Hclean Hb. apply (translated_flat mp id body tr (msgstr_of tr)); try assumption.
  unfold msgstr_of. apply parts_print_clean, Hclean.
Qed.

Lemma new_message_plural vn strs :
  vn <> [] \/ length strs <> 1%nat -> new_message vn strs = CPlural vn (map parts strs).
Proof.
  intros H. unfold new_message. destruct vn as [|c vn]; [|reflexivity].
  destruct strs as [|s [|s' r]]; try reflexivity. destruct H as [H|H]; [congruence | cbn in H; congruence].
Qed.

(* msgstr[k] of a plural entry, rendered against the message [body] *)
Definition eval_form (body : list node) (strs : list bstr) (k : nat) : M unit :=
  match nth_error strs k with
  | Some s => eval_parts w body (parts s)
  | None => fail e_plural_index
  end.

Lemma eval_form_map body strs k :
  match nth_error (map parts strs) k with
  | Some ps => eval_parts w body ps
  | None => fail e_plural_index
  end = eval_form body strs k.
Proof. unfold eval_form. rewrite nth_error_map. destruct (nth_error strs k); reflexivity. Qed.

Theorem plural_selects mp id p vn pv cases dflt strs st :
  vn <> [] \/ length strs <> 1%nat ->
  bundle_message bd id = Some (new_message vn strs) ->
  eval_msg plural_index bd w mp id [NMsgPlural p vn pv cases dflt] st =
  (v <-- eval w pv ;;;
   match v with
   | VInt i => eval_form [NMsgPlural p vn pv cases dflt] strs (plural_index i)
   | _ => fail e_plural
   end) st.
Proof.
  intros Hv Hb. unfold eval_msg. rewrite Hb, (new_message_plural vn strs Hv).
  cbn [eval_cmsg]. rewrite find_plural_head. unfold mbind.
  destruct (eval w pv st) as [[v| | | | |] st']; try reflexivity.
  destruct v; try reflexivity. rewrite eval_form_map. reflexivity.
Qed.

(* a form of a PO plural written by a translator: its items are rendered where
   the translation puts them; the placeholders of both case bodies may be used *)
Theorem plural_form_places_values p vn pv pc cv cb dflt strs k tr :
  forallb flat_node cb = true -> forallb flat_node dflt = true ->
  items_named (dflt ++ cb) tr ->
  nth_error strs k = Some (msgstr_of tr) -> parts_clean (map item_part tr) ->
  eval_form [NMsgPlural p vn pv [NMsgPluralCase pc cv cb] dflt] strs k = run_items w (map (resolve (dflt ++ cb)) tr).
Proof.
  intros Hc Hd Hfrom Hk Hclean. unfold eval_form. rewrite Hk.
  unfold msgstr_of. rewrite (parts_print_clean _ Hclean).
  apply (eval_parts_items _ (dflt ++ cb) tr); [|exact Hfrom].
  intros name. apply placeholder_plural; assumption.
Qed.

Lemma map_item_part_merge l raw : map item_part (merge_items_go l raw) = merge_go (map item_part l) raw.
Proof.
  revert raw; induction l as [|[t|p n b] r IH]; intros raw; cbn [merge_items_go map item_part merge_go].
  - destruct raw; reflexivity.
  - apply IH.
  - destruct raw; cbn [flush map item_part]; rewrite IH; reflexivity.
Qed.

Lemma body_parts_items body : body_parts body = map item_part (source_items body).
Proof.
  unfold body_parts, source_items. induction body as [|n r IH]; [reflexivity|].
  cbn [flat_map]. rewrite map_app, IH. f_equal. destruct n; reflexivity.
Qed.

Lemma merge_items_from l raw p n b : In (TPh p n b) (merge_items_go l raw) -> In (TPh p n b) l.
Proof.
  revert raw; induction l as [|[t|p' n' b'] r IH]; intros raw; cbn [merge_items_go].
  - destruct raw; intros H; [destruct H | destruct H as [H|[]]; discriminate].
  - intros H. right. apply (IH _ H).
  - destruct raw; cbn [In]; intros H.
    + destruct H as [H|H]; [left; exact H | right; apply (IH _ H)].
    + destruct H as [H|[H|H]]; [discriminate | left; exact H | right; apply (IH _ H)].
Qed.

Lemma source_items_from body p n b : In (TPh p n b) (source_items body) -> In (NMsgPlaceholder p n b) body.
Proof.
  unfold source_items. intros H. apply in_flat_map in H as [x [Hx Hin]].
  destruct x; cbn [item_of_node] in Hin; try (destruct Hin; fail).
  - destruct Hin as [Hin|[]]. discriminate.
  - destruct Hin as [Hin|[]]. injection Hin as <- <- <-. exact Hx.
Qed.

(* the source's own items, adjacent texts joined *)
Definition identity_items (body : list node) : list titem := merge_items (source_items body).

Lemma identity_items_from body : items_from body (identity_items body).
Proof. intros p n b H. apply source_items_from. apply (merge_items_from _ [] _ _ _ H). Qed.

Lemma reads_back_items body : reads_back body = true ->
  forallb flat_node body = true /\ parts (write_body body) = map item_part (identity_items body).
Proof.
  intros H. destruct (reads_back_sound body H) as [Hf Hp]. split; [exact Hf|].
  unfold identity_items, merge_items. rewrite map_item_part_merge, <- body_parts_items. exact Hp.
Qed.

(* with msgstr = msgid, a message that Validate accepts renders its own text
   segments and placeholders in source order *)
Theorem identity_flat mp id body :
  reads_back body = true ->
  bundle_message bd id = Some (new_message [] [write_body body]) ->
  eval_msg plural_index bd w mp id body = run_items w (map (resolve body) (identity_items body)).
Proof.
  intros Hrb Hb. destruct (reads_back_items body Hrb) as [Hf Hp].
  exact (translated_flat mp id body (identity_items body) (write_body body) Hf (items_from_named _ _ (identity_items_from body)) Hb Hp).
Qed.

Theorem identity_form p vn pv pc cv cb dflt strs k src :
  reads_back cb = true -> reads_back dflt = true ->
  (src = cb \/ src = dflt) ->
  nth_error strs k = Some (write_body src) ->
  eval_form [NMsgPlural p vn pv [NMsgPluralCase pc cv cb] dflt] strs k =
  run_items w (map (resolve (dflt ++ cb)) (identity_items src)).
Proof.
  intros Hc Hd Hsrc Hk.
  destruct (reads_back_items cb Hc) as [Hfc Hpc]. destruct (reads_back_items dflt Hd) as [Hfd Hpd].
  unfold eval_form. rewrite Hk.
  replace (parts (write_body src)) with (map item_part (identity_items src)) by (destruct Hsrc as [-> | ->]; symmetry; assumption).
  apply (eval_parts_items _ (dflt ++ cb)).
  - intros name. apply placeholder_plural; assumption.
  - intros q n b Hin. apply identity_items_from in Hin. exists q, b. apply in_or_app.
    destruct Hsrc as [-> | ->]; [right | left]; exact Hin.
Qed.

Definition ph_items (tr : list titem) : list titem :=
  filter (fun i => match i with TPh _ _ _ => true | TText _ => false end) tr.

Lemma perm_items_from body tr :
  Permutation (ph_items tr) (ph_items (source_items body)) -> items_from body tr.
Proof.
  intros Hperm p n b Hin. apply source_items_from.
  assert (In (TPh p n b) (ph_items tr)) as H1 by (unfold ph_items; apply filter_In; split; [exact Hin | reflexivity]).
  apply (Permutation_in _ Hperm) in H1. unfold ph_items in H1. apply filter_In in H1 as [H1 _]. exact H1.
Qed.

Theorem reorder_catalogue mp id body tr :
  forallb flat_node body = true ->
  Permutation (ph_items tr) (ph_items (source_items body)) ->
  parts_clean (map item_part tr) ->
  bundle_message bd id = Some (new_message [] [msgstr_of tr]) ->
  eval_msg plural_index bd w mp id body = run_items w (map (resolve body) tr).
Proof.
  intros Hf Hperm Hclean Hb. apply translation_places_values; try assumption.
  apply items_from_named, perm_items_from, Hperm.
Qed.

(* ... and under coherence every slot holds the code the translation names *)
Theorem reorder_same body tr :
  coherent body -> Permutation (ph_items tr) (ph_items (source_items body)) ->
  same_items (map (resolve body) tr) tr.
Proof. intros Hco Hperm. apply resolve_same; [exact Hco | apply perm_items_from, Hperm]. Qed.

End Render.
