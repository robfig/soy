(* Source tie, family 83-gotrans-quote, parse/quote.go unquoteString: the whole function (length and quote checks,
   the fast path, the decoding loop with \uNNNN and the escape table, the error exits) against Model/Quote.v's
   unquote_string / unquote_loop, with the function as gotrans translates it from the source of the tree under check.

   What enters as parameters of the translation, and how the model instantiates them:
     utf8.DecodeRuneInString  ->  Model/Utf8.v decode_rune                     ([st_dec])
     strconv.ParseInt(s,16,0) ->  Model/NumLit.v parse_int                     ([st_pint]; only "err != nil" of the error)
     string([]rune)           ->  Model/Quote.v string_of_runes, a negative rune encoded as U+FFFD ([st_string_runes])
   The error result is "err != nil".  The loop's fuel len(s)+1 is shown sufficient: every iteration consumes at least
   one byte, so None of the translation never means "out of fuel" here (for strings below 2^62 bytes). *)
From Coq Require Import ZArith NArith Bool Lia ZifyBool List.
From Soy Require Import Model.Bytes Model.Num Model.Utf8 Model.NumLit Generated.Tables Model.Quote
  Proofs.BytesBase Proofs.SourceTieBase Proofs.SourceTieState Proofs.SourceTieUtf8 Proofs.SourceTieQuote.
Import ListNotations.
Open Scope N_scope.

Definition st_pint (s : bstr) (base bits : Z) : Z * bool :=
  match parse_int (Z.to_N base) s with Some z => (z, false) | None => (0%Z, true) end.
Definition st_rune (z : Z) : N := match z with Zneg _ => rune_error | _ => Z.to_N z end.
Definition st_string_runes (l : list Z) : bstr := string_of_runes (map st_rune l).

(* ---- facts about the library models ---- *)
Lemma st_digits_bound (s : bstr) : forall acc n, digits_val 16 s acc = Some n -> n < (acc + 1) * 16 ^ N.of_nat (length s).
Proof.
  induction s as [|c r IH]; intros acc n H; cbn [digits_val length] in *.
  - injection H as <-. cbn. lia.
  - destruct (digit_val c) as [d|]; [|discriminate]. destruct (d <? 16) eqn:E; [|discriminate].
    apply IH in H. replace (N.of_nat (S (length r))) with (N.succ (N.of_nat (length r))) by lia.
    rewrite N.pow_succ_r'. nia.
Qed.

Lemma st_parse_int_small (s : bstr) (z : Z) : (length s <= 4)%nat -> parse_int 16 s = Some z -> (-65536 < z < 65536)%Z.
Proof.
  intros Hl H. unfold parse_int in H.
  assert (Hb : forall ds n, (length ds <= 4)%nat -> digits_val 16 ds 0 = Some n -> n < 65536).
  { intros ds n Hd Hv. apply st_digits_bound in Hv.
    assert (16 ^ N.of_nat (length ds) <= 16 ^ 4) by (apply N.pow_le_mono_r; lia).
    change (16 ^ 4) with 65536 in *. lia. }
  destruct s as [|c r]; [discriminate|].
  destruct (c =? 43); [|destruct (c =? 45)].
  - destruct r as [|c1 r1]; [discriminate|]. destruct (digits_val 16 (c1 :: r1) 0) as [n|] eqn:E; [|discriminate].
    apply Hb in E; [|cbn [length] in *; lia]. destruct (in_int64 (Z.of_N n)); [|discriminate]. injection H as <-. lia.
  - destruct r as [|c1 r1]; [discriminate|]. destruct (digits_val 16 (c1 :: r1) 0) as [n|] eqn:E; [|discriminate].
    apply Hb in E; [|cbn [length] in *; lia]. destruct (in_int64 (- Z.of_N n)); [|discriminate]. injection H as <-. lia.
  - destruct (digits_val 16 (c :: r) 0) as [n|] eqn:E; [|discriminate].
    apply Hb in E; [|exact Hl]. destruct (in_int64 (Z.of_N n)); [|discriminate]. injection H as <-. lia.
Qed.

Lemma st_rune_of_N (r : N) : st_rune (Z.of_N r) = r.
Proof. destruct r; reflexivity. Qed.

(* ---- the decoding loop ---- *)
(* one turn of the model's loop on a string that starts with the rune r, w bytes wide *)
Lemma unquote_loop_step (f : nat) (s : bstr) (esc : bool) (acc : list N) (r : N) (w : nat) :
  s <> [] -> decode_rune s = (r, w) ->
  unquote_loop (S f) s esc acc =
  let s1 := drop w s in
  let step (r : N) (s2 : bstr) : option (list N) :=
    let escaping' := (r =? q_backslash) && negb esc in
    unquote_loop f s2 escaping' (if escaping' then acc else r :: acc) in
  if esc then
    if r =? 117 then
      if (length s1 <? 4)%nat then None
      else match parse_int 16 (take 4 s1) with
           | None => None
           | Some num => step (st_rune num) (drop 4 s1)
           end
    else match unescape_of r with None => None | Some repl => step repl s1 end
  else step r s1.
Proof. intros Hne Ed. destruct s; [congruence|]. cbn [unquote_loop]. rewrite Ed. reflexivity. Qed.

(* [res] is Go's result slice, [acc] the model's accumulator (reversed, negative runes already replaced) *)
Lemma unquote_loop_matches (s : bstr) :
  st_small (go_len s) ->
  forall (m : nat) (i : nat) (esc : bool) (res : list Z) (acc : list N) (fuel mfuel : nat),
    (length s - i <= m)%nat -> (i <= length s)%nat -> map st_rune res = rev acc ->
    (length s - i + 1 <= fuel)%nat -> (length s - i + 1 <= mfuel)%nat ->
    match unquote_loop mfuel (drop i s) esc acc with
    | Some l => exists esc' res' i', src_parse_unquoteString_loop1 fuel st_dec st_pint s esc res (Z.of_nat i) =
                                     Some (go_exit (esc', res', i')) /\ map st_rune res' = l
    | None => src_parse_unquoteString_loop1 fuel st_dec st_pint s esc res (Z.of_nat i) = Some (go_ret ([], true))
    end.
Proof.
  intros Hs m. unfold st_small, go_len in Hs. induction m as [|m IH]; intros i esc res acc fuel mfuel Hm Hi Hacc Hf Hmf.
  - (* nothing left *)
    assert (i = length s) as -> by lia.
    destruct fuel as [|fuel]; [lia|]. destruct mfuel as [|mfuel]; [lia|].
    cbn [src_parse_unquoteString_loop1 unquote_loop].
    rewrite drop_whole. replace (Z.ltb _ _) with false by (unfold go_len; lia).
    exists esc, res, (Z.of_nat (length s)). split; [reflexivity|]. rewrite Hacc. reflexivity.
  - destruct (Nat.eq_dec i (length s)) as [->|Hne].
    { apply (IH (length s) esc res acc fuel mfuel); try lia; assumption. }
    destruct fuel as [|fuel]; [lia|]. destruct mfuel as [|mfuel]; [lia|].
    cbn [src_parse_unquoteString_loop1].
    replace (Z.ltb (Z.of_nat i) (go_len s)) with true by (unfold go_len; lia).
    rewrite st_go_slice_drop by lia. cbn [go_bind].
    destruct (st_rune_at s i) as (r & w & Ed & Edec & Hrne & Hw1 & Hw2 & Hs1); [lia|].
    rewrite Edec, (unquote_loop_step mfuel _ esc acc r w Hrne Ed), Hs1. cbv beta iota zeta.
    rewrite !(st_wrap64 (Z.of_nat i + Z.of_nat w)) by lia.
    replace (Z.of_nat i + Z.of_nat w)%Z with (Z.of_nat (i + w)) by lia.
    (* how a turn ends, whatever shape the source gives the new flag e and the new slice res1: the rune x (Go's z) is
       kept and the loop goes on at byte j, or a backslash opens an escape *)
    assert (Hkeep : forall (x : N) (z : Z) (j : nat) (e : bool) (res1 : list Z),
               st_rune z = x -> (i < j <= length s)%nat -> e = false -> res1 = res ++ [z] ->
               match unquote_loop mfuel (drop j s) false (x :: acc) with
               | Some l => exists esc' res' i', src_parse_unquoteString_loop1 fuel st_dec st_pint s e res1 (Z.of_nat j) =
                                                Some (go_exit (esc', res', i')) /\ map st_rune res' = l
               | None => src_parse_unquoteString_loop1 fuel st_dec st_pint s e res1 (Z.of_nat j) = Some (go_ret ([], true))
               end).
    { intros x z j e res1 <- Hj -> ->. apply IH; try lia. now rewrite map_app, Hacc. }
    destruct esc.
    + (* inside an escape *)
      destruct (N.eqb_spec r 117) as [Eu|Eu].
      * (* \uNNNN *)
        pose proof (drop_length (i + w) s) as Hs1l.
        rewrite !(go_wrap_s_id 64 (Z.of_nat (i + w) + 4)) by (try lia; change (2 ^ (64 - 1))%Z with 9223372036854775808%Z; lia).
        unfold go_len. destruct (Nat.ltb_spec (length (drop (i + w) s)) 4) as [Hshort|Hlong]; st_decide_ifs; [reflexivity|].
        replace (Z.of_nat (i + w) + 4)%Z with (Z.of_nat (i + w) + Z.of_nat 4)%Z by lia.
        rewrite st_go_slice_take_drop by lia. cbn [go_bind].
        unfold st_pint. change (Z.to_N 16%Z) with 16.
        destruct (parse_int 16 (take 4 (drop (i + w) s))) as [num|] eqn:Ep; [|reflexivity].
        apply st_parse_int_small in Ep as Hnum; [|apply take_length_le]. cbv beta iota.
        rewrite !(go_wrap_s_id 32 num) by (try lia; change (2 ^ (32 - 1))%Z with 2147483648%Z; lia).
        replace (Z.of_nat (i + w) + Z.of_nat 4)%Z with (Z.of_nat (i + w + 4)) by lia.
        rewrite drop_drop, andb_false_r.
        apply (Hkeep _ num); [reflexivity | lia | lia | st_decide_ifs; reflexivity].
      * (* a one-letter escape *)
        pose proof (unescape_of_matches_source r) as Hu.
        destruct (unescape_of r) as [repl|]; injection Hu as Hu1 Hu2; rewrite <- ?Hu1, <- Hu2; st_decide_ifs.
        -- rewrite andb_false_r.
           apply (Hkeep _ (Z.of_N repl)); [apply st_rune_of_N | lia | lia | st_decide_ifs; reflexivity].
        -- rewrite (st_wrap64 (Z.of_nat (i + w) - 1)) by lia.
           destruct (go_slice s (Z.of_nat (i + w) - 1) (Z.of_nat (i + w))) eqn:Esl; [reflexivity|].
           exfalso. unfold go_slice in Esl. replace (orb _ _) with false in Esl by (unfold go_len; lia). discriminate.
    + (* plain: a backslash opens an escape, everything else is kept *)
      rewrite andb_true_r. destruct (N.eqb_spec r q_backslash) as [Eb|Eb]; unfold q_backslash in Eb.
      * replace (Z.eqb (Z.of_N r) 92 && negb false) with true by lia. apply IH; try lia. exact Hacc.
      * apply (Hkeep _ (Z.of_N r)); [apply st_rune_of_N | lia | lia | st_decide_ifs; reflexivity].
Qed.

(* ---- the whole function ---- *)
Lemma st_last_byte_index (r : bstr) (c0 : N) :
  go_index_b (c0 :: r) (go_len (c0 :: r) - 1)%Z = match last_byte (c0 :: r) with Some c => Some (Z.of_N c) | None => None end.
Proof.
  unfold go_index_b. rewrite go_index_in by (unfold go_len; cbn [length]; lia).
  replace (Z.to_nat (go_len (c0 :: r) - 1)) with (length r) by (unfold go_len; cbn [length]; lia).
  revert c0. induction r as [|c1 r IH]; intros c0; [reflexivity|].
  cbn [length nth_error]. rewrite IH. reflexivity.
Qed.

Lemma st_removelast_slice (r : bstr) (c0 : N) :
  r <> [] -> go_slice (c0 :: r) 1%Z (go_len (c0 :: r) - 1)%Z = Some (removelast r).
Proof.
  intros Hne. assert (1 <= length r)%nat as Hl1 by (destruct r; [congruence|cbn [length]; lia]).
  unfold go_slice, go_len. cbn [length]. replace (orb _ _) with false by lia. f_equal.
  change (Z.to_nat 1) with 1%nat. cbn [drop].
  replace (Z.to_nat (Z.of_nat (S (length r)) - 1 - 1)) with (length r - 1)%nat by lia.
  clear c0 Hl1. induction r as [|c1 r IH]; [congruence|]. destruct r as [|c2 r]; [reflexivity|].
  change (removelast (c1 :: c2 :: r)) with (c1 :: removelast (c2 :: r)).
  replace (length (c1 :: c2 :: r) - 1)%nat with (S (length (c2 :: r) - 1)) by (cbn [length]; lia).
  cbn [take]. f_equal. apply IH. congruence.
Qed.

Theorem unquote_string_matches_source (s : bstr) :
  st_small (go_len s) ->
  src_parse_unquoteString st_dec st_pint st_string_runes s =
  Some (match unquote_string s with Some r => (r, false) | None => ([], true) end).
Proof.
  intros Hs. unfold src_parse_unquoteString, unquote_string. cbv zeta. unfold st_small in Hs.
  destruct s as [|c0 [|c1 r1]]; [reflexivity|reflexivity|].
  set (r := c1 :: r1) in *. assert (Hr : r <> []) by (unfold r; congruence).
  assert (Hlen2 : (2 <= go_len (c0 :: r))%Z) by (unfold go_len, r; cbn [length]; lia).
  st_decide_ifs.
  unfold go_index_b at 1. rewrite go_index_0. cbn [go_bind].
  rewrite st_wrap64 by lia. rewrite st_last_byte_index.
  replace (negb (Z.eqb 39 (Z.of_N c0))) with (negb (c0 =? q_quote)) by (unfold q_quote; lia).
  destruct (c0 =? q_quote) eqn:E0; cbn [negb andb go_bind].
  2:{ reflexivity. }
  destruct (last_byte (c0 :: r)) as [cl|] eqn:El.
  2:{ exfalso. clear -El. revert c0 El. induction r as [|a r IH]; intros c0 El; [discriminate|]. cbn [last_byte] in El. exact (IH a El). }
  assert (El' : last_byte r = Some cl).
  { unfold r in *. cbn [last_byte] in El. exact El. }
  rewrite El'. cbn [go_bind].
  replace (negb (Z.eqb 39 (Z.of_N cl))) with (negb (cl =? q_quote)) by (unfold q_quote; lia).
  destruct (cl =? q_quote) eqn:E1; cbn [negb go_bind]; [|reflexivity].
  rewrite st_removelast_slice by exact Hr. cbn [go_bind].
  set (body := removelast r).
  change 92%Z with (Z.of_N q_backslash). change 39%Z with (Z.of_N q_quote).
  rewrite <- !quote_contains_matches_source.
  destruct (negb (mem q_backslash body) && negb (mem q_quote body)); [reflexivity|].
  assert (Hbl : (length body <= length r)%nat).
  { unfold body. clear. induction r as [|a [|b0 r] IH]; cbn [removelast length] in *; lia. }
  assert (Hsb : st_small (go_len body)) by (unfold st_small, go_len in *; cbn [length] in Hs; lia).
  rewrite st_wrap64 by (unfold go_len in *; cbn [length] in Hs; lia).
  pose proof (unquote_loop_matches body Hsb (length body) 0%nat false [] [] (Z.to_nat (go_len body + 1)) (S (length body))
                ltac:(lia) ltac:(lia) eq_refl ltac:(unfold go_len; lia) ltac:(lia)) as H.
  cbn [drop] in H. change (Z.of_nat 0) with 0%Z in H.
  destruct (unquote_loop (S (length body)) body false []) as [l|].
  - destruct H as (esc' & res' & i' & H & Hl). rewrite H. unfold st_string_runes. rewrite Hl. reflexivity.
  - rewrite H. reflexivity.
Qed.
