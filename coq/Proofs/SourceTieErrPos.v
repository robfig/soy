(* Source tie, family 70-gotrans-lexer-preds, the position part (parse/lexer.go whole,
   lineNumber): Spec/ErrPos.v's [line_at] against lexer.lineNumber as gotrans translates it
   from the source of the tree under check. *)
From Coq Require Import ZArith NArith Bool Lia ZifyBool List.
From Soy Require Import Model.Bytes Generated.Tables Model.Interp Spec.ErrPos Proofs.SourceTieBase.
Import ListNotations.
Open Scope N_scope.

(* l.whole(): the enclosing file's text for a quoted expression, else the input *)
Lemma lexer_whole_matches_source (input outer : bstr) :
  match outer with [] => input | _ => outer end = src_parse_lexer_whole input outer.
Proof. unfold src_parse_lexer_whole. rewrite bstr_eqb_nil_r. destruct outer; reflexivity. Qed.

Lemma go_count_byte_nl (s : bstr) : go_count_byte 10 s = Z.of_N (count_nl s).
Proof.
  induction s as [|c s IH]; cbn [go_count_byte count_nl]; [reflexivity|].
  rewrite IH. destruct (c =? 10); lia.
Qed.

Lemma count_nl_le (s : bstr) : (Z.of_N (count_nl s) <= Z.of_nat (length s))%Z.
Proof. induction s as [|c s IH]; cbn [count_nl length]; [lia|]. destruct (c =? 10); lia. Qed.

Lemma st_take_length_le (n : nat) (s : bstr) : (length (take n s) <= length s)%nat.
Proof. revert s; induction n as [|n IH]; intros [|c s]; cbn [take length]; try lia. specialize (IH s). lia. Qed.

Lemma go_slice_prefix (s : bstr) (p : N) :
  p <= N.of_nat (length s) -> go_slice s 0%Z (Z.of_N p) = Some (take (N.to_nat p) s).
Proof.
  intros H. unfold go_slice, go_len.
  replace (orb (Z.ltb 0 0) (orb (Z.ltb (Z.of_N p) 0) (Z.ltb (Z.of_nat (length s)) (Z.of_N p)))) with false by lia.
  rewrite Z.sub_0_r. change (Z.to_nat 0) with O. cbn [drop]. f_equal. f_equal. lia.
Qed.

Lemma go_slice_prefix_out (s : bstr) (p : N) :
  N.of_nat (length s) < p -> go_slice s 0%Z (Z.of_N p) = None.
Proof.
  intros H. unfold go_slice, go_len.
  replace (orb (Z.ltb 0 0) (orb (Z.ltb (Z.of_N p) 0) (Z.ltb (Z.of_nat (length s)) (Z.of_N p)))) with true by lia.
  reflexivity.
Qed.

(* lexer.lineNumber(pos) = 1 + strings.Count(l.whole()[:pos], "\n"); the guard keeps the int addition from wrapping
   (a source text shorter than 2^62 bytes) *)
Theorem line_at_matches_source (input outer : bstr) (pos : N) :
  let whole := src_parse_lexer_whole input outer in
  (Z.of_nat (length whole) < 2 ^ 62)%Z ->
  pos <= N.of_nat (length whole) ->
  src_parse_lexer_lineNumber input outer (Z.of_N pos) = Some (Z.of_N (line_at whole pos)).
Proof.
  intros whole Hlen Hpos. unfold src_parse_lexer_lineNumber. fold whole.
  rewrite (go_slice_prefix whole pos Hpos). cbn [go_bind]. f_equal.
  rewrite go_count_byte_nl. unfold line_at.
  pose proof (count_nl_le (take (N.to_nat pos) whole)) as H1.
  pose proof (st_take_length_le (N.to_nat pos) whole) as H2.
  rewrite go_wrap_s_id; [lia|lia|].
  change (2 ^ (64 - 1))%Z with 9223372036854775808%Z.
  change (2 ^ 62)%Z with 4611686018427387904%Z in Hlen. lia.
Qed.

(* beyond the text the slice panics (Model/Parser.v's c_error_at models that as a crash) *)
Theorem line_number_out_of_range_matches_source (input outer : bstr) (pos : N) :
  N.of_nat (length (src_parse_lexer_whole input outer)) < pos ->
  src_parse_lexer_lineNumber input outer (Z.of_N pos) = None.
Proof.
  intros H. unfold src_parse_lexer_lineNumber. now rewrite (go_slice_prefix_out _ _ H).
Qed.
