(* parse_show: parsing the tokens that the Spec printer writes for an expression tree gives
   back that tree -- for every well-formed tree (no bound on its size), every operator,
   every placement of required and redundant parentheses.  C17's round trip is the minimal
   style; print_injective follows.  Built from the rules of Proofs/ExprParserRules.v by
   precedence climbing (loop continuation, left/right spine
   conditions, strong induction on the size of the tree). *)
From Soy Require Import Model.Bytes Model.Num Model.Values Model.Ast Model.Token Model.NumLit Model.Quote Model.ExprParser
  Model.AstPrint Generated.Tables Spec.ExprSyntax Proofs.ExprParserRules Proofs.LiteralProofs Proofs.ValueProofs.
From Soy Require Proofs.FloatRtPrint.
Require Import Lia ZifyBool.
Open Scope N_scope.

Lemma op_tok_binary op : is_binary_op (op_tok_typ op) = true.
Proof. destruct op; reflexivity. Qed.

(* the parser's level of an operator is the Soy table's, except that ?: sits at 0 with the
   ternary (which parseExpr treats after its loop) *)
Lemma qlev_spec op : prec_of (op_tok_typ op) = match op with OElvis => 0 | _ => op_level op end.
Proof. destruct op; reflexivity. Qed.

Lemma new_binary_op_tok op p a c : new_binary_op (op_tok op p) a c = Some (NBin op p a c).
Proof. destruct op; reflexivity. Qed.

Lemma op_tok_not_ternif op : (op_tok_typ op =? pk_itemTernIf) = false.
Proof. destruct op; reflexivity. Qed.

Lemma op_tok_not_access op : access_start (op_tok_typ op) = false.
Proof. destruct op; reflexivity. Qed.

Lemma op_tok_not_dot_paren op : (op_tok_typ op =? pk_itemDotIdent) = false /\ (op_tok_typ op =? pk_itemLeftParen) = false.
Proof. destruct op; split; reflexivity. Qed.

Lemma op_level_pos op : 1 <= op_level op /\ op_level op <= 7.
Proof. destruct op; cbn; lia. Qed.

(* the Soy level below which the loop of parseExpr(p) stops *)
Definition ml (p : N) : N := if p =? 0 then 0 else N.max p 2.

Lemma ml_q op : ml (prec_of (op_tok_typ op) + 1) = op_level op + 1.
Proof. destruct op; reflexivity. Qed.

Lemma cont_level op p : ml p <= op_level op -> (prec_of (op_tok_typ op) <? p) = false.
Proof. intros H. rewrite qlev_spec. unfold ml in H. destruct (N.eqb_spec p 0); destruct op; cbn [op_level] in *; lia. Qed.

Lemma stop_level op p pos : op_level op < ml p -> stop_at p (op_tok op pos) = true.
Proof.
  intros H. unfold stop_at. cbn [t_typ op_tok tk]. rewrite op_tok_binary, qlev_spec, op_tok_not_ternif.
  unfold ml in H. destruct (N.eqb_spec p 0) as [E|E]; [destruct op; cbn [op_level] in *; lia|].
  replace (p =? 0) with false by lia. destruct op; cbn [op_level negb orb andb] in *; lia.
Qed.

Lemma stop_closer p t : closer t = true -> stop_at p t = true.
Proof.
  unfold closer, stop_at. intros H. apply andb_true_iff in H. destruct H as [H _].
  apply andb_true_iff in H. destruct H as [H1 H2]. rewrite H1. cbn [orb].
  apply negb_true_iff in H2. rewrite H2. rewrite andb_false_r. reflexivity.
Qed.

Lemma stop_ternif p : p <> 0 -> stop_at p T_ternif = true.
Proof. intros H. unfold stop_at. cbn [t_typ T_ternif tk]. change (is_binary_op pk_itemTernIf) with false. cbn [negb orb andb]. lia. Qed.

Lemma closer_not_access t : closer t = true -> access_start (t_typ t) = false.
Proof.
  unfold closer, access_start. intros H. apply andb_true_iff in H. destruct H as [_ H].
  apply negb_true_iff in H. repeat (apply orb_false_iff in H; destruct H as [H ?]).
  repeat match goal with E : (_ =? _) = false |- _ => rewrite E; clear E end. reflexivity.
Qed.

Lemma closer_not_dot_paren t : closer t = true -> (t_typ t =? pk_itemDotIdent) = false /\ (t_typ t =? pk_itemLeftParen) = false.
Proof.
  unfold closer. intros H. apply andb_true_iff in H. destruct H as [_ H].
  apply negb_true_iff in H. repeat (apply orb_false_iff in H; destruct H as [H ?]). split; assumption.
Qed.

Fixpoint size (e : node) : nat :=
  match e with
  | NFunc _ _ args => S (list_sum (map size args))
  | NListLit _ items => S (list_sum (map size items))
  | NMapLit _ items => S (list_sum (map (fun kv => size (snd kv)) items))
  | NDataRef _ _ acc => S (list_sum (map size acc))
  | NAccExpr _ _ a => S (size a)
  | NNot _ a | NNeg _ a => S (size a)
  | NBin _ _ a c => S (size a + size c)
  | NTern _ c x y => S (size c + size x + size y)
  | _ => 1%nat
  end.

Lemma list_sum_In {A} (f : A -> nat) x l : In x l -> (f x <= list_sum (map f l))%nat.
Proof.
  induction l as [|y l IH]; [intros []|]. change (list_sum (map f (y :: l))) with (f y + list_sum (map f l))%nat.
  intros [->|H]; [lia | specialize (IH H); lia].
Qed.

Lemma allP_In {A} (P : A -> Prop) l x : allP P l -> In x l -> P x.
Proof. induction l as [|y l IH]; cbn; [tauto|]. intros [Hy Hl] [->|H]; auto. Qed.

Lemma allP_app {A} (P : A -> Prop) l1 l2 : allP P (l1 ++ l2) <-> allP P l1 /\ allP P l2.
Proof. induction l1 as [|y l IH]; cbn; [tauto|]. rewrite IH. tauto. Qed.

Definition head_ok (x : tok) : Prop :=
  (t_typ x =? pk_itemRightParen) = false /\ (t_typ x =? pk_itemColon) = false /\ (t_typ x =? pk_itemRightBracket) = false.

Lemma split_dots_shape s : forall cur, exists f r, split_dots cur s = f :: r.
Proof. induction s as [|c s IH]; intros cur; cbn [split_dots]; [eauto|]. destruct (c =? 46); eauto. Qed.

Lemma split_dots_concat s : forall cur, List.concat (split_dots cur s) = cur ++ s.
Proof.
  induction s as [|c s IH]; intros cur; cbn [split_dots].
  - cbn. rewrite !app_nil_r. reflexivity.
  - destruct (N.eqb_spec c 46) as [->|_].
    + cbn [List.concat]. rewrite IH. reflexivity.
    + rewrite IH, <- app_assoc. reflexivity.
Qed.

Lemma parens_S k ts : parens (S k) ts = T_lparen :: parens k ts ++ [T_rparen].
Proof. reflexivity. Qed.

(* C01 (implicit print): the first item of a printed expression, under any style, is one of
   the item types with which beginTag starts an implicit print command (values, unary
   operators, "[" and "("); the command-level parser ties [expr_start_types] to the case list
   of parse.go's beginTag. *)
Definition expr_start_types : list N :=
  [pk_itemIdent; pk_itemDollarIdent; pk_itemNull; pk_itemBool; pk_itemFloat; pk_itemInteger; pk_itemString;
   pk_itemNegate; pk_itemNot; pk_itemLeftBracket; pk_itemLeftParen].

Theorem show_starts_expression sty e : wf_expr e -> forall path kk,
  exists x l, parens kk (show sty path e) = x :: l /\ mem (t_typ x) expr_start_types = true.
Proof.
  assert (HP : forall ts k, (exists x l, ts = x :: l /\ mem (t_typ x) expr_start_types = true) ->
                            exists x l, parens k ts = x :: l /\ mem (t_typ x) expr_start_types = true).
  { intros ts [|k] H; [exact H|]. rewrite parens_S. do 2 eexists. split; reflexivity. }
  induction e; intros Hwf path kk; cbn [wf_expr] in Hwf; try contradiction; apply HP; cbn [show];
    try (do 2 eexists; split; reflexivity).
  - unfold global_toks. destruct (split_dots_shape name []) as (f & r & E). rewrite E. do 2 eexists; split; reflexivity.
  - destruct items; do 2 eexists; split; reflexivity.
  - destruct Hwf as [H1 _]. destruct (IHe1 H1 (0%nat :: path) (sty (0%nat :: path) + b2n (expr_level e1 <? op_level op)%N)%nat) as (x & l & E & Hx).
    rewrite E. do 2 eexists; split; [reflexivity | exact Hx].
  - destruct Hwf as (_ & H1 & _). destruct (IHe1 H1 (0%nat :: path) (sty (0%nat :: path) + b2n (expr_level e1 <? lvl_ternary + 1)%N)%nat) as (x & l & E & Hx).
    rewrite E. do 2 eexists; split; [reflexivity | exact Hx].
Qed.

(* such an item is none of the items that close a parenthesis, a ternary branch or a literal *)
Lemma start_head_ok x : mem (t_typ x) expr_start_types = true -> head_ok x.
Proof.
  unfold mem, expr_start_types, head_ok. cbn [existsb]. intros H.
  repeat (apply orb_true_iff in H; destruct H as [H|H]); try discriminate H; apply N.eqb_eq in H; rewrite H; repeat split; reflexivity.
Qed.

Section Style.
Variable sty : list nat -> nat.

Definition kL (path : list nat) (op : binop) (a : node) : nat := (sty (0%nat :: path) + b2n (expr_level a <? op_level op)%N)%nat.
Definition kR (path : list nat) (op : binop) (c : node) : nat := (sty (1%nat :: path) + b2n (expr_level c <? op_level op + 1)%N)%nat.
Definition kU (path : list nat) (a : node) : nat := (sty (0%nat :: path) + b2n (expr_level a <? lvl_unary)%N)%nat.
Definition kN (path : list nat) (a : node) : nat := (sty (0%nat :: path) + b2n ((expr_level a <? lvl_unary)%N || neg_literal a))%nat.
Definition kC (path : list nat) (c : node) : nat := (sty (0%nat :: path) + b2n (expr_level c <? lvl_ternary + 1)%N)%nat.

Definition is_tern (e : node) : bool := match e with NTern _ _ _ _ => true | _ => false end.

(* every operator on the unparenthesised left spine has level >= m *)
Fixpoint lspine (m : N) (path : list nat) (e : node) : Prop :=
  match e with
  | NBin op _ a _ => m <= op_level op /\ (kL path op a = 0%nat -> lspine m (0%nat :: path) a)
  | NTern _ _ _ _ => m = 0
  | _ => True
  end.

Fixpoint rspine (m : N) (path : list nat) (e : node) : Prop :=
  match e with
  | NBin op _ _ c => m <= op_level op /\ (kR path op c = 0%nat -> rspine m (1%nat :: path) c)
  | NTern _ _ _ _ => m = 0
  | _ => True
  end.

(* the item [t] that follows is not taken by any procedure still open on the right spine *)
Fixpoint rstops (path : list nat) (e : node) (t : tok) : Prop :=
  match e with
  | NBin op _ _ c => stop_at (prec_of (op_tok_typ op) + 1) t = true /\ (kR path op c = 0%nat -> rstops (1%nat :: path) c t)
  | NTern _ _ _ y => stop_at 0 t = true /\ (sty (2%nat :: path) = 0%nat -> rstops (2%nat :: path) y t)
  | NNot _ a => stop_at 8 t = true /\ (kU path a = 0%nat -> rstops (0%nat :: path) a t)
  | NNeg _ a => stop_at 8 t = true /\ (kN path a = 0%nat -> rstops (0%nat :: path) a t)
  | NDataRef _ _ _ => access_start (t_typ t) = false
  | NGlobal _ _ _ => (t_typ t =? pk_itemDotIdent) = false /\ (t_typ t =? pk_itemLeftParen) = false
  | _ => True
  end.

Lemma lspine_weaken m m' e : m' <= m -> forall path, lspine m path e -> lspine m' path e.
Proof.
  intros Hm. induction e; intros path; cbn [lspine]; auto; try lia.
  intros [H1 H2]. split; [lia|]. intros Hk. apply IHe1, H2, Hk.
Qed.

Lemma rspine_weaken m m' e : m' <= m -> forall path, rspine m path e -> rspine m' path e.
Proof.
  intros Hm. induction e; intros path; cbn [rspine]; auto; try lia.
  intros [H1 H2]. split; [lia|]. intros Hk. apply IHe2, H2, Hk.
Qed.

Lemma b2n_plus_0 a x : (a + b2n x = 0)%nat -> a = 0%nat /\ x = false.
Proof. destruct x; cbn; lia. Qed.

Lemma lspine_self e : forall path, lspine (expr_level e) path e.
Proof.
  induction e; intros path; cbn [lspine expr_level]; auto.
  split; [lia|]. intros Hk. apply b2n_plus_0 in Hk. destruct Hk as [_ Hk].
  apply lspine_weaken with (m := expr_level e1); [lia | apply IHe1].
Qed.

Lemma rspine_self e : forall path, rspine (expr_level e) path e.
Proof.
  induction e; intros path; cbn [rspine expr_level]; auto.
  split; [lia|]. intros Hk. apply b2n_plus_0 in Hk. destruct Hk as [_ Hk].
  apply rspine_weaken with (m := expr_level e2); [lia | apply IHe2].
Qed.

Lemma lspine_0 e path : lspine 0 path e.
Proof. apply lspine_weaken with (m := expr_level e); [lia | apply lspine_self]. Qed.

Lemma high_level_spines e m path : lvl_unary <= expr_level e -> lspine m path e /\ rspine m path e.
Proof. destruct e; cbn [expr_level lspine rspine]; auto; unfold lvl_unary, lvl_ternary; try lia. intros H. pose proof (op_level_pos op). lia. Qed.

Lemma rspine_0 e path : rspine 0 path e.
Proof. apply rspine_weaken with (m := expr_level e); [lia | apply rspine_self]. Qed.

(* an item that stops the loop of every procedure that can be open on a right spine of operators of level >= m
   is taken by none of them *)
Lemma rstops_spine t m :
  access_start (t_typ t) = false -> (t_typ t =? pk_itemDotIdent) = false /\ (t_typ t =? pk_itemLeftParen) = false ->
  stop_at 8 t = true -> (forall op, m <= op_level op -> stop_at (prec_of (op_tok_typ op) + 1) t = true) ->
  (m = 0 -> stop_at 0 t = true) ->
  forall e path, rspine m path e -> rstops path e t.
Proof.
  intros Ha Hd H8 Hbin Htern. induction e; intros path Hr; cbn [rstops]; try exact I; try assumption.
  - split; [exact H8|]. intros Hk. apply b2n_plus_0 in Hk. destruct Hk as [_ Hk]. apply IHe, high_level_spines. lia.
  - split; [exact H8|]. intros Hk. apply b2n_plus_0 in Hk. destruct Hk as [_ Hk]. apply orb_false_iff in Hk. destruct Hk as [Hk _].
    apply IHe, high_level_spines. lia.
  - destruct Hr as [H1 H2]. split; [apply Hbin, H1 | intros Hk; apply IHe2, H2, Hk].
  - cbn [rspine] in Hr. subst m. split; [apply Htern; reflexivity | intros _; apply IHe3, rspine_0].
Qed.

Lemma rstops_closer e path t : closer t = true -> rstops path e t.
Proof.
  intros Hc. apply (rstops_spine t 0); auto using closer_not_access, closer_not_dot_paren, stop_closer, rspine_0.
Qed.

(* a binary operator follows: fine when the right spine is at least as tight *)
Lemma rstops_op e path op pos : rspine (op_level op) path e -> rstops path e (op_tok op pos).
Proof.
  pose proof (op_level_pos op). apply rstops_spine; [apply op_tok_not_access | apply op_tok_not_dot_paren | | | lia].
  - apply stop_level. change (ml 8) with 8. lia.
  - intros op' Hle. apply stop_level. rewrite ml_q. lia.
Qed.

(* "?" follows: fine when no ternary is open on the right spine *)
Lemma rstops_ternif e path : rspine 1 path e -> rstops path e T_ternif.
Proof.
  apply rstops_spine; [reflexivity | split; reflexivity | | | lia]; intros; apply stop_ternif; lia.
Qed.

Lemma show_head e : wf_expr e -> forall path kk, exists x l, parens kk (show sty path e) = x :: l /\ head_ok x.
Proof.
  intros Hwf path kk. destruct (show_starts_expression sty e Hwf path kk) as (x & l & E & Hx). eauto using start_head_ok.
Qed.

Definition Good (e : node) : Prop :=
  wf_expr e -> forall path,
    (is_tern e = false -> forall p t rest n' rest',
        lspine (ml p) path e -> rstops path e t ->
        Loops p e (t :: rest) n' rest' -> Parses p (show sty path e ++ t :: rest) n' rest') /\
    (is_tern e = true -> forall t rest,
        rstops path e t -> Parses 0 (show sty path e ++ t :: rest) e (t :: rest)).

Lemma ml_0_inv p : ml p = 0 -> p = 0.
Proof. unfold ml. destruct (N.eqb_spec p 0); lia. Qed.

Lemma Good_stop e : Good e -> wf_expr e -> forall path p t rest,
  lspine (ml p) path e -> rstops path e t -> stop_at p t = true ->
  Parses p (show sty path e ++ t :: rest) e (t :: rest).
Proof.
  intros HG Hwf path p t rest Hl Hr Hs. destruct (HG Hwf path) as [H1 H2].
  destruct (is_tern e) eqn:E.
  - destruct e; try discriminate. cbn [lspine] in Hl. apply ml_0_inv in Hl. subst p. apply H2; auto.
  - apply H1; auto. apply Loops_stop, Hs.
Qed.

Lemma app_cons_assoc {A} (l1 : list A) x l2 : (l1 ++ [x]) ++ l2 = l1 ++ x :: l2.
Proof. rewrite <- app_assoc. reflexivity. Qed.

Section Child.
Variable c : node.
Hypothesis Hg : Good c.
Hypothesis Hwf : wf_expr c.

Lemma child_closed0 q t rest : closer t = true -> Parses 0 (show sty q c ++ t :: rest) c (t :: rest).
Proof.
  intros Hc. apply Good_stop; auto; [apply lspine_0 | apply rstops_closer, Hc | apply stop_closer, Hc].
Qed.

Lemma child_wrapped k q l : First (parens (S k) (show sty q c) ++ l) c l.
Proof.
  revert l. induction k as [|k IH]; intros l; rewrite parens_S; cbn [app]; rewrite app_cons_assoc.
  - apply First_paren with (r := T_rparen); [reflexivity | | reflexivity]. cbn [parens]. apply child_closed0. reflexivity.
  - apply First_paren with (r := T_rparen); [reflexivity | | reflexivity].
    eapply Parses_first; [apply IH | apply Loops_stop; reflexivity].
Qed.

(* an operand in any context, with the continuation of the enclosing loop *)
Lemma child_operand p k q t rest n' rest' :
  (k = 0%nat -> is_tern c = false /\ lspine (ml p) q c /\ rstops q c t) ->
  Loops p c (t :: rest) n' rest' ->
  Parses p (parens k (show sty q c) ++ t :: rest) n' rest'.
Proof.
  intros Hk HL. destruct k as [|k].
  - destruct (Hk eq_refl) as (Ht & Hl & Hr). cbn [parens]. destruct (Hg Hwf q) as [H1 _]. apply H1; auto.
  - eapply Parses_first; [apply child_wrapped | exact HL].
Qed.

Lemma child_operand_stop p k q t rest :
  (k = 0%nat -> lspine (ml p) q c /\ rstops q c t) -> stop_at p t = true ->
  Parses p (parens k (show sty q c) ++ t :: rest) c (t :: rest).
Proof.
  intros Hk Hs. destruct k as [|k].
  - destruct (Hk eq_refl) as (Hl & Hr). cbn [parens]. apply Good_stop; auto.
  - eapply Parses_first; [apply child_wrapped | apply Loops_stop, Hs].
Qed.

Lemma child_closed k q t rest : closer t = true -> Parses 0 (parens k (show sty q c) ++ t :: rest) c (t :: rest).
Proof.
  intros Hc. apply child_operand_stop; [|apply stop_closer, Hc]. intros _. split; [apply lspine_0 | apply rstops_closer, Hc].
Qed.
End Child.

Lemma mapi_from_cons {A B} (f : nat -> A -> B) i x r : mapi_from f i (x :: r) = f i x :: mapi_from f (S i) r.
Proof. reflexivity. Qed.
Lemma sep_join_cons2 sep x y r : sep_join sep (x :: y :: r) = x ++ sep ++ sep_join sep (y :: r).
Proof. reflexivity. Qed.

Definition arg_toks (path : list nat) (i : nat) (c : node) : list tok := parens (sty (i :: path)) (show sty (i :: path) c).

Definition all_good (cs : list node) : Prop := forall c, In c cs -> Good c /\ wf_expr c.

Lemma all_good_cons c cs : all_good (c :: cs) -> (Good c /\ wf_expr c) /\ all_good cs.
Proof. intros H. split; [apply H; left; reflexivity | intros x Hx; apply H; right; exact Hx]. Qed.

(* expressions separated by "," up to a closing item: parseListLiteral and the argument loop of
   newFunctionNode are the same loop, J its judgement and mk the node it builds *)
Lemma comma_chain (J : list node -> list tok -> node -> list tok -> Prop) (mk : list node -> node) cl path l :
  closer cl = true ->
  (forall acc ts e l2, Parses 0 ts e (cl :: l2) -> J acc ts (mk (acc ++ [e])) l2) ->
  (forall acc ts e l2 n rest, Parses 0 ts e (T_comma :: l2) -> J (acc ++ [e]) l2 n rest -> J acc ts n rest) ->
  forall cs acc i, all_good cs -> cs <> [] ->
  J acc (sep_join [T_comma] (mapi_from (arg_toks path) i cs) ++ cl :: l) (mk (acc ++ cs)) l.
Proof.
  intros Hcl Jlast Jmore. induction cs as [|c cs IHcs]; intros acc i Hall Hne; [congruence|].
  apply all_good_cons in Hall. destruct Hall as [[Hg Hw] Hall].
  destruct cs as [|c' cs'].
  - cbn [mapi_from sep_join]. apply Jlast. apply child_closed; auto.
  - rewrite mapi_from_cons, mapi_from_cons, sep_join_cons2, <- !app_assoc. cbn [app].
    eapply Jmore with (e := c); [apply child_closed; auto|].
    specialize (IHcs (acc ++ [c]) (S i) Hall ltac:(discriminate)).
    rewrite <- app_assoc in IHcs. exact IHcs.
Qed.

Definition item_toks (path : list nat) (i : nat) (kv : bstr * node) : list tok :=
  tk pk_itemString 0 (quote_key (fst kv)) :: T_colon :: parens (sty (i :: path)) (show sty (i :: path) (snd kv)).

Definition set_all (acc : list (bstr * node)) (l : list (bstr * node)) : list (bstr * node) :=
  fold_left (fun a kv => items_set a (fst kv) (snd kv)) l acc.

Definition all_good_kv (l : list (bstr * node)) : Prop :=
  forall kv, In kv l -> key_ok (fst kv) /\ Good (snd kv) /\ wf_expr (snd kv).

Lemma mloop_chain p path l : forall items acc i k v,
  Good v -> wf_expr v -> all_good_kv items ->
  MLoop p acc k (parens (sty (i :: path)) (show sty (i :: path) v) ++
                 match items with
                 | [] => T_rbracket :: l
                 | _ => T_comma :: sep_join [T_comma] (mapi_from (item_toks path) (S i) items) ++ T_rbracket :: l
                 end)
        (NMapLit p (set_all acc ((k, v) :: items))) l.
Proof.
  induction items as [|[k' v'] items IHi]; intros acc i k v Hg Hw Hall.
  - apply MLoop_last with (r := T_rbracket); [|reflexivity]. apply child_closed; auto.
  - assert (Hkv : key_ok k' /\ Good v' /\ wf_expr v') by (apply (Hall (k', v')); left; reflexivity).
    destruct Hkv as (Hk' & Hg' & Hw').
    assert (Hall' : all_good_kv items) by (intros x Hx; apply Hall; right; exact Hx).
    specialize (IHi (items_set acc k v) (S i) k' v' Hg' Hw' Hall').
    destruct items as [|kv2 items2].
    + cbn [mapi_from sep_join item_toks fst snd app] in *.
      eapply MLoop_more with (c := T_comma) (k := tk pk_itemString 0 (quote_key k')) (cl := T_colon) (key' := k') (e := v);
        [apply child_closed; auto | reflexivity | reflexivity | reflexivity | exact Hk' | reflexivity | exact IHi].
    + rewrite !mapi_from_cons, sep_join_cons2. cbn [item_toks fst snd app]. rewrite <- !app_assoc. cbn [app].
      eapply MLoop_more with (c := T_comma) (k := tk pk_itemString 0 (quote_key k')) (cl := T_colon) (key' := k') (e := v);
        [apply child_closed; auto | reflexivity | reflexivity | reflexivity | exact Hk' | reflexivity | ].
      rewrite mapi_from_cons in IHi. exact IHi.
Qed.

(* the parser's map insertions rebuild a duplicate-free item list *)
Lemma items_set_fresh acc k v : (forall kv, In kv acc -> bstr_eqb k (fst kv) = false) -> items_set acc k v = acc ++ [(k, v)].
Proof.
  induction acc as [|[k' v'] acc IH]; intros H; cbn [items_set app]; [reflexivity|].
  pose proof (H (k', v') (or_introl eq_refl)) as E. cbn [fst] in E. rewrite E. f_equal. apply IH. intros kv Hkv. apply H. right. exact Hkv.
Qed.

Fixpoint kv_nodup (l : list (bstr * node)) : Prop :=
  match l with
  | [] => True
  | kv :: r => (forall kv', In kv' r -> bstr_eqb (fst kv') (fst kv) = false) /\ kv_nodup r
  end.

Lemma set_all_distinct : forall l acc,
  (forall kv kv', In kv l -> In kv' acc -> bstr_eqb (fst kv) (fst kv') = false) -> kv_nodup l -> set_all acc l = acc ++ l.
Proof.
  induction l as [|[k v] l IH]; intros acc Hd Hn; unfold set_all; cbn [fold_left]; [rewrite app_nil_r; reflexivity|].
  destruct Hn as [Hn1 Hn2]. cbn [fst snd]. rewrite items_set_fresh.
  - fold (set_all (acc ++ [(k, v)]) l). rewrite IH; [rewrite <- app_assoc; reflexivity | | exact Hn2].
    intros kv kv' Hkv Hkv'. apply in_app_or in Hkv'. destruct Hkv' as [Hkv'|[<-|[]]].
    + apply Hd; [right; exact Hkv | exact Hkv'].
    + apply Hn1, Hkv.
  - intros kv' Hkv'. apply (Hd (k, v) kv'); [left; reflexivity | exact Hkv'].
Qed.

Lemma sorted_head_lt : forall r k, keys_sorted (k :: r) -> forall k', In k' r -> bstr_ltb k k' = true.
Proof.
  induction r as [|k1 r IH]; intros k Hs k' Hin; [destruct Hin|].
  cbn [keys_sorted] in Hs. destruct Hs as [H1 H2]. destruct Hin as [<-|Hin]; [exact H1|].
  apply bstr_ltb_trans with (y := k1); [exact H1 | apply IH; [exact H2 | exact Hin]].
Qed.

Lemma sorted_kv_nodup : forall l, keys_sorted (map fst l) -> kv_nodup l.
Proof.
  induction l as [|kv l IH]; intros Hs; cbn [kv_nodup]; [exact I|]. split.
  - intros kv' Hin. cbn [map] in Hs.
    pose proof (sorted_head_lt _ _ Hs (fst kv') (in_map fst _ _ Hin)) as Hlt.
    destruct (bstr_eqb_spec (fst kv') (fst kv)) as [E|_]; [|reflexivity].
    rewrite E, bstr_ltb_irrefl in Hlt. discriminate.
  - apply IH. cbn [map keys_sorted] in Hs. apply Hs.
Qed.

Definition acc_ok (a : node) : Prop :=
  match a with
  | NAccIndex _ _ i => (0 <= i)%Z /\ in_int64 i = true
  | NAccKey _ _ _ => True
  | NAccExpr _ _ x => Good x /\ wf_expr x
  | _ => False
  end.

Lemma refloop_chain p key path t rest : access_start (t_typ t) = false ->
  forall accs done i, (forall a, In a accs -> acc_ok a) ->
  RefLoop p key done (List.concat (mapi_from (fun i a => show sty (i :: path) a) i accs) ++ t :: rest)
          (NDataRef p key (done ++ accs)) (t :: rest).
Proof.
  intros Ht. induction accs as [|a accs IH]; intros done i Hall.
  - cbn [mapi_from List.concat app]. rewrite app_nil_r. apply Ref_stop, Ht.
  - assert (Ha : acc_ok a) by (apply Hall; left; reflexivity).
    assert (Hall' : forall a, In a accs -> acc_ok a) by (intros x Hx; apply Hall; right; exact Hx).
    specialize (IH (done ++ [a]) (S i) Hall'). rewrite <- app_assoc in IH. cbn [app] in IH.
    rewrite mapi_from_cons. cbn [List.concat]. rewrite <- app_assoc.
    destruct a; cbn [acc_ok] in Ha; try contradiction; cbn [show].
    + (* .N *) destruct Ha as [Hi0 Hi64]. cbn [app].
      eapply Ref_idx with (ns := nullsafe) (ds := dec_of_Z i0) (i := i0);
        [destruct nullsafe; reflexivity | destruct nullsafe; reflexivity | destruct nullsafe; reflexivity | | apply parse_int_dec, Hi64 | exact IH].
      destruct nullsafe; cbn [t_val tk]; [apply (slice_from_app [63; 46]) | apply (slice_from_app [46])].
    + (* .key *) cbn [app].
      eapply Ref_key with (ns := nullsafe) (k := k);
        [destruct nullsafe; reflexivity | destruct nullsafe; reflexivity | | exact IH].
      destruct nullsafe; cbn [t_val tk]; [apply (slice_from_app [63; 46]) | apply (slice_from_app [46])].
    + (* [e] *) destruct Ha as [Hg Hw]. cbn [app]. rewrite <- app_assoc. cbn [app].
      eapply Ref_exp with (ns := nullsafe) (e := a) (r := T_rbracket);
        [destruct nullsafe; reflexivity | destruct nullsafe; reflexivity | destruct nullsafe; reflexivity | destruct nullsafe; reflexivity
        | apply child_closed; auto | reflexivity | exact IH].
Qed.

Lemma gstep_chain p t rest : (t_typ t =? pk_itemDotIdent) = false ->
  forall parts name,
  GStep p name (map (fun s => tk pk_itemDotIdent 0 s) parts ++ t :: rest) (NGlobal p (name ++ List.concat parts) VUndef) (t :: rest).
Proof.
  intros Ht. induction parts as [|s parts IH]; intros name.
  - cbn [map List.concat app]. rewrite app_nil_r. apply GStep_stop, Ht.
  - cbn [map List.concat app]. apply GStep_dot; [reflexivity|]. cbn [t_val tk].
    specialize (IH (name ++ s)). rewrite <- app_assoc in IH. exact IH.
Qed.

Lemma sep_join_head sep X R : exists m, sep_join sep (X :: R) = X ++ m.
Proof. destruct R as [|Y R]; [exists []; cbn; rewrite app_nil_r; reflexivity | eexists; apply sep_join_cons2]. Qed.

Ltac first_value := apply First_value; [reflexivity | reflexivity | reflexivity | ].

Section Cases.
Variable n : nat.
Hypothesis IHn : forall e, (size e <= n)%nat -> Good e.

Lemma children_good cs : (list_sum (map size cs) <= n)%nat -> allP wf_expr cs -> all_good cs.
Proof.
  intros Hs Hw c Hc. split; [|eapply allP_In; eauto].
  apply IHn. pose proof (list_sum_In size c cs Hc). lia.
Qed.

Lemma first_func p name args path t rest : (size (NFunc p name args) <= S n)%nat -> wf_expr (NFunc p name args) ->
  First (show sty path (NFunc p name args) ++ t :: rest) (NFunc p name args) (t :: rest).
Proof.
  intros Hsz Hwf. cbn [size] in Hsz. cbn [wf_expr] in Hwf. cbn [show app]. rewrite app_cons_assoc.
  first_value. apply Value_func with (lp := T_lparen); [reflexivity | reflexivity |].
  destruct args as [|c cs].
  - cbn [mapi_from sep_join app]. apply Func_empty. reflexivity.
  - assert (Hall : all_good (c :: cs)) by (apply children_good; [lia | exact Hwf]).
    destruct (sep_join_head [T_comma] (arg_toks path 0 c) (mapi_from (arg_toks path) 1 cs)) as (m & Em).
    destruct (show_head c (proj2 (Hall c (or_introl eq_refl))) (0%nat :: path) (sty (0%nat :: path))) as (x & l & Ex & Hx).
    eapply Func_args with (x := x).
    + change (mapi_from (fun i c0 => parens (sty (i :: path)) (show sty (i :: path) c0)) 0 (c :: cs)) with (arg_toks path 0 c :: mapi_from (arg_toks path) 1 cs).
      rewrite Em. unfold arg_toks at 1. rewrite Ex. reflexivity.
    + apply Hx.
    + exact (comma_chain (FLoop p name) (NFunc p name) T_rparen path (t :: rest) eq_refl
               (fun acc ts e l2 H => FLoop_last p name acc ts e T_rparen l2 H eq_refl eq_refl)
               (fun acc ts e l2 n0 r H => FLoop_more p name acc ts e T_comma l2 n0 r H eq_refl)
               (c :: cs) [] 0%nat Hall ltac:(discriminate)).
Qed.

Lemma first_list p items path t rest : (size (NListLit p items) <= S n)%nat -> wf_expr (NListLit p items) ->
  First (show sty path (NListLit p items) ++ t :: rest) (NListLit p items) (t :: rest).
Proof.
  intros Hsz Hwf. cbn [size] in Hsz. cbn [wf_expr] in Hwf. cbn [show app]. rewrite app_cons_assoc.
  first_value. apply Value_list; [reflexivity|].
  destruct items as [|c cs].
  - cbn [mapi_from sep_join app]. apply LM_empty_list; reflexivity.
  - assert (Hall : all_good (c :: cs)) by (apply children_good; [lia | exact Hwf]).
    destruct (all_good_cons _ _ Hall) as [[Hg Hw] Hall'].
    destruct (show_head c Hw (0%nat :: path) (sty (0%nat :: path))) as (x & l & Ex & Hx).
    change (mapi_from (fun i c0 => parens (sty (i :: path)) (show sty (i :: path) c0)) 0 (c :: cs)) with (arg_toks path 0 c :: mapi_from (arg_toks path) 1 cs).
    destruct cs as [|c' cs'].
    + cbn [mapi_from sep_join].
      eapply LM_single with (x := x) (r := T_rbracket);
        [unfold arg_toks; rewrite Ex; reflexivity | apply Hx | apply Hx | apply child_closed; auto | reflexivity | reflexivity | reflexivity].
    + rewrite mapi_from_cons, sep_join_cons2, <- !app_assoc. cbn [app].
      eapply LM_list with (x := x) (c := T_comma) (first := c);
        [unfold arg_toks at 1; rewrite Ex; reflexivity | apply Hx | apply Hx | apply child_closed; auto | reflexivity | reflexivity | ].
      exact (comma_chain (LLoop p) (NListLit p) T_rbracket path (t :: rest) eq_refl
               (fun acc ts e l2 H => LLoop_last p acc ts e T_rbracket l2 H eq_refl)
               (fun acc ts e l2 n0 r H => LLoop_more p acc ts e T_comma l2 n0 r H eq_refl eq_refl)
               (c' :: cs') [c] 1%nat Hall' ltac:(discriminate)).
Qed.

Lemma first_map p items path t rest : (size (NMapLit p items) <= S n)%nat -> wf_expr (NMapLit p items) ->
  First (show sty path (NMapLit p items) ++ t :: rest) (NMapLit p items) (t :: rest).
Proof.
  intros Hsz Hwf. cbn [size] in Hsz. cbn [wf_expr] in Hwf. destruct Hwf as [Hwf Hsorted]. cbn [show].
  destruct items as [|[k v] items].
  - cbn [app]. first_value. apply Value_list; [reflexivity|]. apply LM_empty_map; reflexivity.
  - cbn [app]. rewrite app_cons_assoc. first_value. apply Value_list; [reflexivity|].
    assert (Hall : all_good_kv ((k, v) :: items)).
    { intros kv Hkv. pose proof (allP_In _ _ _ Hwf Hkv) as [H1 H2]. split; [exact H1|]. split; [|exact H2].
      apply IHn. pose proof (list_sum_In (fun kv => size (snd kv)) kv _ Hkv). lia. }
    destruct (Hall (k, v) (or_introl eq_refl)) as (Hk & Hg & Hw). cbn [fst snd] in Hk, Hg, Hw.
    assert (Hall' : all_good_kv items) by (intros x Hx; apply Hall; right; exact Hx).
    pose proof (mloop_chain p path (t :: rest) items [] 0%nat k v Hg Hw Hall') as HM.
    rewrite (set_all_distinct ((k, v) :: items) []) in HM; [| intros ? ? _ [] | apply sorted_kv_nodup, Hsorted].
    cbn [app] in HM.
    change (mapi_from (fun i kv => tk pk_itemString 0 (quote_key (fst kv)) :: T_colon :: parens (sty (i :: path)) (show sty (i :: path) (snd kv))) 0 ((k, v) :: items))
      with (item_toks path 0 (k, v) :: mapi_from (item_toks path) 1 items).
    assert (HS : forall tail, Parses 0 (tk pk_itemString 0 (quote_key k) :: T_colon :: tail) (NString 0 (quote_key k) k) (T_colon :: tail)).
    { intros tail. eapply Parses_first; [|apply Loops_stop; reflexivity]. first_value.
      apply (Value_string (tk pk_itemString 0 (quote_key k))); [reflexivity | exact Hk]. }
    destruct items as [|kv2 items2].
    + cbn [mapi_from sep_join item_toks fst snd app].
      eapply LM_map with (c := T_colon); [reflexivity | reflexivity | apply HS | reflexivity | exact HM].
    + rewrite mapi_from_cons, sep_join_cons2. cbn [item_toks fst snd app]. rewrite <- !app_assoc. cbn [app].
      eapply LM_map with (c := T_colon); [reflexivity | reflexivity | apply HS | reflexivity | ].
      rewrite mapi_from_cons in HM. exact HM.
Qed.

Lemma first_ref p key acc path t rest : (size (NDataRef p key acc) <= S n)%nat -> wf_expr (NDataRef p key acc) ->
  access_start (t_typ t) = false ->
  First (show sty path (NDataRef p key acc) ++ t :: rest) (NDataRef p key acc) (t :: rest).
Proof.
  intros Hsz Hwf Ht. cbn [size] in Hsz. cbn [wf_expr] in Hwf. cbn [show app].
  first_value. eapply Value_ref with (key := key); [reflexivity | apply (slice_from_app [36]) |]. cbn [t_pos tk].
  apply (refloop_chain p key path t rest Ht acc [] 0%nat).
  intros a Ha. pose proof (allP_In _ _ _ Hwf Ha) as Hwa. pose proof (list_sum_In size a acc Ha) as Hsa.
  destruct a; cbn [acc_ok]; try contradiction; auto.
  split; [|exact Hwa]. apply IHn. cbn [size] in Hsa. lia.
Qed.

Lemma first_global p name path t rest :
  (t_typ t =? pk_itemDotIdent) = false -> (t_typ t =? pk_itemLeftParen) = false ->
  First (show sty path (NGlobal p name VUndef) ++ t :: rest) (NGlobal p name VUndef) (t :: rest).
Proof.
  intros Ht1 Ht2. cbn [show]. unfold global_toks.
  pose proof (split_dots_concat name []) as Hc. destruct (split_dots_shape name []) as (f & r & E). rewrite E in *.
  cbn [List.concat app] in Hc. cbn [app]. first_value.
  pose proof (gstep_chain p t rest Ht1 r f) as HG. rewrite Hc in HG.
  destruct r as [|s r].
  - cbn [map app] in *. apply Value_global; [reflexivity | exact Ht2 | exact HG].
  - cbn [map app] in *. apply Value_global; [reflexivity | reflexivity | exact HG].
Qed.

Lemma level_not_tern e m : 1 <= m -> (expr_level e <? m) = false -> is_tern e = false.
Proof. destruct e; cbn [expr_level is_tern]; auto. unfold lvl_ternary. lia. Qed.

(* a unary operator node: the operator item (level 8), then the operand under k redundant parentheses *)
Lemma case_unary utok u a path k t rest : is_unary_op (t_typ utok) = true -> prec_of (t_typ utok) = 8 ->
  new_unary_op utok a = Some u -> (size a <= n)%nat -> wf_expr a -> stop_at 8 t = true ->
  (k = 0%nat -> (expr_level a <? lvl_unary) = false /\ rstops (0%nat :: path) a t) ->
  First (utok :: parens k (show sty (0%nat :: path) a) ++ t :: rest) u (t :: rest).
Proof.
  intros Hu Hp Hn Hsz Hw Hs Hk. eapply First_unary; [exact Hu | rewrite Hp | exact Hn].
  apply child_operand_stop; [apply IHn, Hsz | exact Hw | | exact Hs].
  intros E. destruct (Hk E) as [Hl Hr]. split; [|exact Hr]. apply high_level_spines. lia.
Qed.

Lemma case_bin op p a c path p0 t rest n' rest' :
  (size (NBin op p a c) <= S n)%nat -> wf_expr (NBin op p a c) ->
  lspine (ml p0) path (NBin op p a c) -> rstops path (NBin op p a c) t ->
  Loops p0 (NBin op p a c) (t :: rest) n' rest' ->
  Parses p0 (show sty path (NBin op p a c) ++ t :: rest) n' rest'.
Proof.
  intros Hsz [Hwa Hwc] [Hl1 Hl2] [Hr1 Hr2] HL. cbn [size] in Hsz. cbn [show]. fold (kL path op a). fold (kR path op c).
  rewrite <- app_assoc. cbn [app].
  pose proof (op_level_pos op) as Hop.
  assert (HB : Parses (prec_of (op_tok_typ op) + 1) (parens (kR path op c) (show sty (1%nat :: path) c) ++ t :: rest) c (t :: rest)).
  { apply child_operand_stop; [apply IHn; lia | exact Hwc | | exact Hr1].
    intros E. split; [|apply Hr2, E]. rewrite ml_q. apply b2n_plus_0 in E. destruct E as [_ E].
    apply lspine_weaken with (m := expr_level c); [lia | apply lspine_self]. }
  assert (HLa : Loops p0 a (op_tok op p :: parens (kR path op c) (show sty (1%nat :: path) c) ++ t :: rest) n' rest').
  { eapply Loops_step with (n2 := c); [apply op_tok_binary | apply cont_level, Hl1 | exact HB | apply new_binary_op_tok | exact HL]. }
  apply child_operand; [apply IHn; lia | exact Hwa | | exact HLa].
  intros E. pose proof (b2n_plus_0 _ _ E) as [_ E']. split; [|split].
  - apply level_not_tern with (m := op_level op); [lia | exact E'].
  - apply Hl2, E.
  - apply rstops_op. apply rspine_weaken with (m := expr_level a); [lia | apply rspine_self].
Qed.

Lemma case_tern p c x y path t rest :
  (size (NTern p c x y) <= S n)%nat -> wf_expr (NTern p c x y) -> rstops path (NTern p c x y) t ->
  Parses 0 (show sty path (NTern p c x y) ++ t :: rest) (NTern p c x y) (t :: rest).
Proof.
  intros Hsz (Hp & Hwc & Hwx & Hwy) [Hr1 Hr2]. cbn [size] in Hsz. subst p. cbn [show]. fold (kC path c).
  rewrite <- app_assoc. cbn [app]. rewrite <- app_assoc. cbn [app].
  assert (HY : Parses 0 (parens (sty (2%nat :: path)) (show sty (2%nat :: path) y) ++ t :: rest) y (t :: rest)).
  { apply child_operand_stop; [apply IHn; lia | exact Hwy | | exact Hr1]. intros E. split; [apply lspine_0 | apply Hr2, E]. }
  assert (HX : Parses 0 (parens (sty (1%nat :: path)) (show sty (1%nat :: path) x) ++ T_colon :: parens (sty (2%nat :: path)) (show sty (2%nat :: path) y) ++ t :: rest)
                      x (T_colon :: parens (sty (2%nat :: path)) (show sty (2%nat :: path) y) ++ t :: rest)).
  { apply child_closed; [apply IHn; lia | exact Hwx | reflexivity]. }
  apply child_operand; [apply IHn; lia | exact Hwc | |].
  - intros E. pose proof (b2n_plus_0 _ _ E) as [_ E']. split; [|split].
    + apply level_not_tern with (m := lvl_ternary + 1); [unfold lvl_ternary; lia | exact E'].
    + apply lspine_0.
    + apply rstops_ternif. apply rspine_weaken with (m := expr_level c); [unfold lvl_ternary in E'; lia | apply rspine_self].
  - eapply Loops_tern with (c := T_colon); [reflexivity | exact HX | reflexivity | exact HY].
Qed.

Lemma Good_step e : (size e <= S n)%nat -> Good e.
Proof.
  intros Hsz Hwf path.
  assert (HP : (forall t rest, rstops path e t -> First (show sty path e ++ t :: rest) e (t :: rest)) ->
               forall p t rest n' rest', rstops path e t -> Loops p e (t :: rest) n' rest' ->
               Parses p (show sty path e ++ t :: rest) n' rest').
  { intros HF p t rest n' rest' Hr HL. eapply Parses_first; [apply HF, Hr | exact HL]. }
  destruct e; cbn [wf_expr] in Hwf; try contradiction;
    (split; [intros Hnt p0 t rest n' rest' Hl Hr HL; try discriminate Hnt | intros Ht; try discriminate Ht]).
  - (* null *) eapply HP; eauto. intros. cbn [show app]. first_value. apply (Value_null (tk pk_itemNull p s_null)). reflexivity.
  - (* bool *) eapply HP; eauto. intros. cbn [show app]. first_value.
    destruct x; [exact (Value_bool (tk pk_itemBool p s_true) _ eq_refl) | exact (Value_bool (tk pk_itemBool p s_false) _ eq_refl)].
  - (* int *) eapply HP; eauto. intros. cbn [show app]. first_value.
    apply (Value_int (tk pk_itemInteger p (dec_of_Z z))); [reflexivity|]. cbn [t_val tk].
    rewrite dec_of_Z_no_0x. apply parse_int_dec, Hwf.
  - (* float *) eapply HP; eauto. intros. cbn [show app]. destruct Hwf as (Hnorm & s & Hs1). rewrite Hs1. first_value.
    apply (Value_float_round (tk pk_itemFloat p s)); [reflexivity | exact (FloatRtPrint.fl_print_parse _ _ Hnorm Hs1)].
  - (* string *) eapply HP; eauto. intros. cbn [show app]. first_value.
    apply (Value_string (tk pk_itemString p quoted)); [reflexivity | exact Hwf].
  - (* global *) subst v. eapply HP; eauto. intros ? ? [H1 H2]. apply first_global; assumption.
  - (* function *) eapply HP; eauto. intros. apply first_func; assumption.
  - (* list *) eapply HP; eauto. intros. apply first_list; assumption.
  - (* map *) eapply HP; eauto. intros. apply first_map; assumption.
  - (* data reference *) eapply HP; eauto. intros ? ? H. apply first_ref; assumption.
  - (* not *) eapply HP; eauto. intros t0 rest0 [H1 H2]. cbn [show app]. cbn [size] in Hsz.
    apply case_unary; try reflexivity; [lia | exact Hwf | exact H1|]. intros E. split; [apply (b2n_plus_0 _ _ E) | apply H2, E].
  - (* negate *) eapply HP; eauto. intros t0 rest0 [H1 H2]. cbn [show app]. cbn [size] in Hsz.
    apply case_unary; try reflexivity; [lia | exact Hwf | exact H1|]. intros E. split; [|apply H2, E].
    pose proof (b2n_plus_0 _ _ E) as [_ E']. apply orb_false_iff in E'. apply E'.
  - (* binary *) apply case_bin; assumption.
  - (* ternary *) intros t rest Hr. apply case_tern; assumption.
Qed.
End Cases.

Theorem all_Good : forall n e, (size e <= n)%nat -> Good e.
Proof.
  induction n as [|n IH]; intros e Hsz.
  - destruct e; cbn [size] in Hsz; lia.
  - apply (Good_step n IH), Hsz.
Qed.
End Style.

Lemma Good_all sty e : Good sty e.
Proof. apply (all_Good sty (size e)). lia. Qed.

(* C01 (syntax): the tokens the Spec printer writes for a tree, under ANY placement of
   redundant parentheses [sty], parse back to that tree, leaving exactly what follows --
   precedence and associativity of every operator, all literal forms, data references,
   calls, list and map literals; trees of any size. *)
Theorem parse_show sty path e t rest :
  wf_expr e -> closer t = true -> Parses 0 (show sty path e ++ t :: rest) e (t :: rest).
Proof. intros Hwf Hc. apply child_closed0; [apply Good_all | exact Hwf | exact Hc]. Qed.

(* the same, spelled out on the model's entry point (parse.Expr): some fuel suffices, every
   larger fuel gives the same result, and the items left are exactly those after the expression *)
Theorem parse_show_top sty path e t rest :
  wf_expr e -> closer t = true ->
  exists st' f0, stream st' = t :: rest /\
    forall f, (f0 <= f)%nat -> parse_expr_top f (show sty path e ++ t :: rest) = POk e st'.
Proof.
  intros Hwf Hc. destruct (stream_init (show sty path e ++ t :: rest)) as [Hs Hi].
  destruct (parse_show sty path e t rest Hwf Hc _ Hs Hi) as (st' & Hs' & _ & f0 & Hf).
  exists st', f0. split; [exact Hs'|]. intros f Hle. apply (Hf f f); exact Hle.
Qed.

(* parsing at any operand level p: an expression whose operators all bind at least as
   tightly as p is read in full, and the parser stops at the first operator that binds less
   tightly (left associativity is the case "equal level") *)
Theorem parse_show_level sty path e p t rest :
  wf_expr e -> lspine sty (ml p) path e -> rstops sty path e t -> stop_at p t = true ->
  Parses p (show sty path e ++ t :: rest) e (t :: rest).
Proof. intros Hwf Hl Hr Hs. apply Good_stop; auto. apply Good_all. Qed.

(* C17: the minimal style is what ast/node.go prints *)
Theorem parse_print_roundtrip e t rest :
  wf_expr e -> closer t = true ->
  exists st' f0, stream st' = t :: rest /\
    forall f, (f0 <= f)%nat -> parse_expr_top f (tokens_of e ++ t :: rest) = POk e st'.
Proof. apply parse_show_top. Qed.

Theorem tokens_of_injective e1 e2 : wf_expr e1 -> wf_expr e2 -> tokens_of e1 = tokens_of e2 -> e1 = e2.
Proof.
  intros H1 H2 E.
  destruct (parse_print_roundtrip e1 T_rdelim [] H1 eq_refl) as (s1 & f1 & _ & F1).
  destruct (parse_print_roundtrip e2 T_rdelim [] H2 eq_refl) as (s2 & f2 & _ & F2).
  specialize (F1 (max f1 f2) ltac:(lia)). specialize (F2 (max f1 f2) ltac:(lia)).
  rewrite E in F1. rewrite F1 in F2. inversion F2. reflexivity.
Qed.

Section PrintCmd.
Variable sty : list nat -> nat.

Definition dir_arg_toks (path : list nat) (i : nat) (c : node) : list tok :=
  (if Nat.eqb i 0 then T_colon else T_comma) :: parens (sty (i :: path)) (show sty (i :: path) c).

Lemma dargs_chain path t rest :
  ((t_typ t =? pk_itemColon) || (t_typ t =? pk_itemComma)) = false -> closer t = true ->
  forall cs done i, allP wf_expr cs ->
  DArgs done (List.concat (mapi_from (dir_arg_toks path) i cs) ++ t :: rest) (done ++ cs) (t :: rest).
Proof.
  intros Ht Hc. induction cs as [|c cs IH]; intros done i Hw.
  - cbn [mapi_from List.concat app]. rewrite app_nil_r. apply DArgs_stop, Ht.
  - destruct Hw as [Hwc Hw]. rewrite mapi_from_cons. cbn [List.concat]. unfold dir_arg_toks at 1. cbn [app].
    rewrite <- app_assoc. specialize (IH (done ++ [c]) (S i) Hw). rewrite <- app_assoc in IH. cbn [app] in IH.
    destruct cs as [|c' cs'].
    + cbn [mapi_from List.concat app] in *.
      eapply DArgs_more with (e := c); [destruct (Nat.eqb i 0); reflexivity | | exact IH].
      apply child_closed; [apply Good_all | exact Hwc | exact Hc].
    + rewrite mapi_from_cons in *. cbn [List.concat] in *. unfold dir_arg_toks at 1. unfold dir_arg_toks at 1 in IH.
      cbn [Nat.eqb app] in *. rewrite <- app_assoc in *.
      eapply DArgs_more with (e := c); [destruct (Nat.eqb i 0); reflexivity | | exact IH].
      apply child_closed; [apply Good_all | exact Hwc | reflexivity].
Qed.

Lemma show_directive_shape path d : wf_directive d ->
  exists p name args, d = NDirective p name args /\ allP wf_expr args /\
    show_directive sty path d = tk pk_itemPipe p [124] :: tk pk_itemIdent 0 name :: List.concat (mapi_from (dir_arg_toks path) 0 args).
Proof. destruct d; cbn [wf_directive]; try contradiction. intros Hw. do 3 eexists. split; [reflexivity|]. split; [exact Hw | reflexivity]. Qed.

Lemma ploop_chain p e path rest : forall ds done i, allP wf_directive ds ->
  PLoop p e done (List.concat (mapi_from (fun i d => show_directive sty (S i :: path) d) i ds) ++ T_rdelim :: rest)
        (NPrint p e (done ++ ds)) rest.
Proof.
  induction ds as [|d ds IH]; intros done i Hw.
  - cbn [mapi_from List.concat app]. rewrite app_nil_r. apply PLoop_end. reflexivity.
  - destruct Hw as [Hwd Hw]. rewrite mapi_from_cons. cbn [List.concat].
    destruct (show_directive_shape (S i :: path) d Hwd) as (pd & name & args & -> & Hwa & ->).
    specialize (IH (done ++ [NDirective pd name args]) (S i) Hw). rewrite <- app_assoc in IH. cbn [app] in IH.
    cbn [app]. rewrite <- app_assoc.
    destruct ds as [|d' ds'].
    + cbn [mapi_from List.concat app] in *.
      eapply PLoop_dir with (args := args); [reflexivity | reflexivity | reflexivity | | exact IH].
      exact (dargs_chain (S i :: path) T_rdelim rest eq_refl eq_refl args [] 0%nat Hwa).
    + destruct Hw as [Hwd' Hw']. rewrite mapi_from_cons in *. cbn [List.concat] in *.
      destruct (show_directive_shape (S (S i) :: path) d' Hwd') as (pd' & name' & args' & -> & Hwa' & E').
      rewrite E' in *. cbn [app] in *.
      eapply PLoop_dir with (args := args); [reflexivity | reflexivity | reflexivity | | exact IH].
      exact (dargs_chain (S i :: path) (tk pk_itemPipe pd' [124]) _ eq_refl eq_refl args [] 0%nat Hwa).
Qed.

(* C17 for print commands: after "{" (or "{print"), the tokens of a print command -- its
   expression, its directives with their arguments, the closing brace -- parse back to it *)
Theorem parse_show_print path p arg dirs rest :
  wf_print (NPrint p arg dirs) ->
  ParsesPrint p (show_print sty path (NPrint p arg dirs) ++ rest) (NPrint p arg dirs) rest.
Proof.
  intros [Hwa Hwd]. cbn [show_print]. rewrite <- !app_assoc. cbn [app].
  pose proof (ploop_chain p arg path rest dirs [] 0%nat Hwd) as HP. cbn [app] in HP.
  eapply ParsesPrint_intro; [|exact HP].
  destruct dirs as [|d ds].
  - cbn [mapi_from List.concat app]. apply child_closed; [apply Good_all | exact Hwa | reflexivity].
  - destruct Hwd as [Hd _]. rewrite mapi_from_cons. cbn [List.concat].
    destruct (show_directive_shape (1%nat :: path) d Hd) as (pd & name & args & -> & _ & ->).
    cbn [app]. apply child_closed; [apply Good_all | exact Hwa | reflexivity].
Qed.
End PrintCmd.

Theorem parse_print_roundtrip_cmd p arg dirs rest :
  wf_print (NPrint p arg dirs) ->
  exists st' f0, stream st' = rest /\
    forall f, (f0 <= f)%nat ->
      parse_print f p (pst_init (tokens_of_print (NPrint p arg dirs) ++ rest)) = POk (NPrint p arg dirs) st'.
Proof.
  intros Hwf. destruct (stream_init (tokens_of_print (NPrint p arg dirs) ++ rest)) as [Hs Hi].
  destruct (parse_show_print sty_min [] p arg dirs rest Hwf _ Hs Hi) as (st' & Hs' & _ & f0 & Hf).
  exists st', f0. split; [exact Hs'|]. intros f Hle. apply (Hf f f); exact Hle.
Qed.

Lemma size_induction (P : node -> Prop) :
  (forall e, (forall c, (size c < size e)%nat -> P c) -> P e) -> forall e, P e.
Proof.
  intros H e. assert (G : forall n c, (size c < n)%nat -> P c).
  { induction n as [|n IH]; intros c Hc; [lia|]. apply H. intros d Hd. apply IH. lia. }
  apply (G (S (size e))). lia.
Qed.

Lemma map_parens k ts : map strip_tok (parens k ts) = parens k (map strip_tok ts).
Proof. induction k as [|k IH]; [reflexivity|]. cbn [parens map]. rewrite map_app, IH. reflexivity. Qed.

Lemma map_sep_join ls : map strip_tok (sep_join [T_comma] ls) = sep_join [T_comma] (map (map strip_tok) ls).
Proof.
  induction ls as [|x ls IH]; [reflexivity|]. destruct ls as [|y ls]; [reflexivity|].
  rewrite sep_join_cons2, !map_app, IH. reflexivity.
Qed.

Lemma mapi_from_map {A B C} (f : nat -> B -> C) (g : A -> B) l : forall i,
  mapi_from f i (map g l) = mapi_from (fun i x => f i (g x)) i l.
Proof. induction l as [|x l IH]; intros i; [reflexivity|]. cbn [map]. rewrite !mapi_from_cons, IH. reflexivity. Qed.

Lemma map_mapi_from {A B C} (h : B -> C) (f : nat -> A -> B) l : forall i,
  map h (mapi_from f i l) = mapi_from (fun i x => h (f i x)) i l.
Proof. induction l as [|x l IH]; intros i; [reflexivity|]. rewrite !mapi_from_cons. cbn [map]. rewrite IH. reflexivity. Qed.

Lemma mapi_from_ext_in {A B} (f g : nat -> A -> B) l : (forall i x, In x l -> f i x = g i x) -> forall i,
  mapi_from f i l = mapi_from g i l.
Proof.
  induction l as [|x l IH]; intros H i; [reflexivity|]. rewrite !mapi_from_cons. f_equal.
  - apply H. left. reflexivity.
  - apply IH. intros j y Hy. apply H. right. exact Hy.
Qed.

Lemma expr_level_strip e : expr_level (strip_pos e) = expr_level e.
Proof. destruct e; reflexivity. Qed.
Lemma neg_literal_strip e : neg_literal (strip_pos e) = neg_literal e.
Proof. destruct e; reflexivity. Qed.

Lemma size_in_list (c : node) l : In c l -> (size c <= list_sum (map size l))%nat.
Proof. apply list_sum_In. Qed.

(* the printer does not look at positions *)
Lemma show_strip sty : forall e path, show sty path (strip_pos e) = map strip_tok (show sty path e).
Proof.
  induction e as [e IH] using size_induction. intros path.
  destruct e; try reflexivity; cbn [strip_pos show].
  - (* global *) unfold global_toks. destruct (split_dots [] name) as [|f r]; [reflexivity|].
    cbn [map]. f_equal. rewrite map_map. reflexivity.
  - (* function *) cbn [map]. do 2 f_equal. rewrite map_app, map_sep_join, mapi_from_map, map_mapi_from. cbn [map]. do 2 f_equal.
    apply mapi_from_ext_in. intros i c Hc. rewrite map_parens. f_equal. apply IH.
    cbn [size]. pose proof (size_in_list c args Hc). lia.
  - (* list *) cbn [map]. f_equal. rewrite map_app, map_sep_join, mapi_from_map, map_mapi_from. cbn [map]. do 2 f_equal.
    apply mapi_from_ext_in. intros i c Hc. rewrite map_parens. f_equal. apply IH.
    cbn [size]. pose proof (size_in_list c items Hc). lia.
  - (* map *) destruct items as [|kv items]; [reflexivity|]. cbn [map]. f_equal.
    change ((fst kv, strip_pos (snd kv)) :: map (fun kv0 => (fst kv0, strip_pos (snd kv0))) items)
      with (map (fun kv0 => (fst kv0, strip_pos (snd kv0))) (kv :: items)).
    rewrite map_app, map_sep_join, mapi_from_map, map_mapi_from. cbn [map]. do 2 f_equal.
    apply mapi_from_ext_in. intros i c Hc. cbn [fst snd map]. do 2 f_equal. rewrite map_parens. f_equal. apply IH.
    cbn [size]. pose proof (list_sum_In (fun kv => size (snd kv)) c _ Hc). lia.
  - (* data reference *) cbn [map]. f_equal. rewrite concat_map, mapi_from_map, map_mapi_from. f_equal.
    apply mapi_from_ext_in. intros i c Hc. apply IH. cbn [size]. pose proof (size_in_list c access Hc). lia.
  - (* [e] *) cbn [map]. rewrite map_app, map_parens, IH by (cbn [size]; lia). destruct nullsafe; reflexivity.
  - (* not *) cbn [map]. rewrite map_parens, IH, expr_level_strip by (cbn [size]; lia). reflexivity.
  - (* negate *) cbn [map]. rewrite map_parens, IH, expr_level_strip, neg_literal_strip by (cbn [size]; lia). reflexivity.
  - (* binary *) rewrite !map_app. cbn [map]. rewrite !map_parens, !IH, !expr_level_strip by (cbn [size]; lia). reflexivity.
  - (* ternary *) rewrite !map_app. cbn [map]. rewrite !map_app. cbn [map].
    rewrite !map_parens, !IH, !expr_level_strip by (cbn [size]; lia). reflexivity.
Qed.

Lemma pos_of_strip e : wf_expr e -> pos_of (strip_pos e) = 0.
Proof. destruct e; cbn [wf_expr]; try contradiction; reflexivity. Qed.

Lemma allP_map_in {A} (P Q : A -> Prop) (g : A -> A) l :
  (forall x, In x l -> P x -> Q (g x)) -> allP P l -> allP Q (map g l).
Proof.
  induction l as [|x l IH]; intros H Hl; [exact I|]. destruct Hl as [Hx Hl]. split.
  - apply H; [left; reflexivity | exact Hx].
  - apply IH; [intros y Hy; apply H; right; exact Hy | exact Hl].
Qed.

Lemma wf_strip : forall e, wf_expr e -> wf_expr (strip_pos e).
Proof.
  induction e as [e IH] using size_induction. intros Hwf.
  destruct e; cbn [wf_expr] in Hwf; try contradiction; cbn [strip_pos wf_expr]; auto.
  - eapply allP_map_in; [|exact Hwf]. intros c Hc Hw. apply IH; [|exact Hw]. cbn [size]. pose proof (size_in_list c args Hc). lia.
  - eapply allP_map_in; [|exact Hwf]. intros c Hc Hw. apply IH; [|exact Hw]. cbn [size]. pose proof (size_in_list c items Hc). lia.
  - destruct Hwf as [Hw Hs]. split.
    + eapply allP_map_in; [|exact Hw]. intros kv Hkv [Hk Hv]. cbn [fst snd]. split; [exact Hk|]. apply IH; [|exact Hv].
      cbn [size]. pose proof (list_sum_In (fun kv => size (snd kv)) kv _ Hkv). lia.
    + rewrite map_map. cbn [fst]. exact Hs.
  - eapply allP_map_in; [|exact Hwf]. intros a Ha Hw. pose proof (size_in_list a access Ha) as Hsz.
    destruct a; try contradiction; cbn [strip_pos]; auto. apply IH; [cbn [size] in *; lia | exact Hw].
  - destruct Hwf as [H1 H2]. split; apply IH; auto; cbn [size]; lia.
  - destruct Hwf as (Hp & H1 & H2 & H3). split; [symmetry; apply pos_of_strip, H1|].
    repeat split; apply IH; auto; cbn [size]; lia.
Qed.

(* C17: two well-formed expressions whose printed token sequences agree up to positions are
   the same expression up to positions *)
Theorem print_injective e1 e2 :
  wf_expr e1 -> wf_expr e2 ->
  map strip_tok (tokens_of e1) = map strip_tok (tokens_of e2) -> strip_pos e1 = strip_pos e2.
Proof.
  intros H1 H2 E. apply tokens_of_injective; [apply wf_strip, H1 | apply wf_strip, H2 |].
  unfold tokens_of. rewrite !show_strip. exact E.
Qed.

(* finite checks on the tables regenerated from ast/node.go (binaryPrecedence, precTernary,
   precUnary, precPrimary): Model/AstPrint.v parenthesises by exactly the levels of the Spec *)
Lemma ast_levels_are_soy_levels : forall op, binop_level op = op_level op.
Proof. destruct op; reflexivity. Qed.

Lemma ast_level_of_is_expr_level : forall e, level_of e = expr_level e.
Proof. destruct e; try reflexivity. apply ast_levels_are_soy_levels. Qed.

(* every escape the printer writes for a map key is one the parser's unquoteString undoes *)
Lemma ast_escapes_are_unescapes :
  forallb (fun e => match snd e with
                    | [bs; x] => (bs =? 92) && negb (x =? 117) && (fst e <? 128) &&
                                 match unescape_of x with Some c => c =? fst e | None => false end
                    | _ => false
                    end) ast_string_escapes = true.
Proof. reflexivity. Qed.

(* distinct binary operators have distinct operator texts *)
Lemma binop_names_distinct : forall o1 o2, binop_name o1 = binop_name o2 -> o1 = o2.
Proof. destruct o1, o2; intros H; try reflexivity; discriminate H. Qed.

(* the map-key side condition of wf_expr holds for every valid UTF-8 key (Proofs/LiteralProofs.v) *)
Theorem key_ok_valid_utf8 k : Utf8.utf8_valid k = true -> key_ok k.
Proof. apply key_roundtrip. Qed.

(* the float side condition of wf_expr is decidable: a checker, sound by construction *)
Definition fl_same (x y : fl) : bool :=
  match x, y with
  | FNaN, FNaN => true
  | FInf a, FInf c | FZero a, FZero c => Bool.eqb a c
  | FFin m e, FFin m' e' => (m =? m')%Z && (e =? e')%Z
  | _, _ => false
  end.

Lemma fl_same_eq x y : fl_same x y = true -> x = y.
Proof.
  destruct x, y; cbn [fl_same]; try discriminate; try reflexivity.
  - intros H. apply Bool.eqb_prop in H. congruence.
  - intros H. apply Bool.eqb_prop in H. congruence.
  - intros H. apply andb_true_iff in H. destruct H as [H1 H2]. f_equal; lia.
Qed.

Definition float_okb (f : fl) : bool :=
  match f with FZero _ => true | FFin m _ => Z.odd m | _ => false end &&
  match fl_print f with Some _ => true | None => false end.

Lemma float_okb_sound f : float_okb f = true -> float_ok f.
Proof.
  unfold float_okb, float_ok. intros H. apply andb_prop in H as [H1 H2]. split.
  - destruct f; cbn [fl_finite_norm]; try discriminate; [exact Logic.I|exact H1].
  - destruct (fl_print f) as [s|]; [exists s; reflexivity|discriminate].
Qed.

