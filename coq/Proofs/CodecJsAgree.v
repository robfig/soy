(* C16: the Go directive and its JavaScript counterpart agree on their common domain.
   truncate counts bytes in Go and UTF-16 code units in JavaScript: on ASCII text (where a byte is a code
   unit is a character) and a non-negative limit the two compute the same string. *)
From Coq Require Import Lia ZifyBool.
From Soy Require Import Model.Bytes Model.Utf8 Model.Outcome Model.Escape Model.Directives Model.JsEscape Model.JsDirectives
  Spec.Html Spec.Codec Proofs.Utf8Proofs Proofs.CodecProofs Proofs.CodecJsUnits.
Open Scope N_scope.

Lemma ascii_not_high s i : Forall (fun c => c < 128) s -> u_high_at s i = false.
Proof.
  intros H. unfold u_high_at, u_at. destruct (i <? 0)%Z; [reflexivity|].
  destruct (nth_error s (Z.to_nat i)) as [c|] eqn:E; [|reflexivity].
  apply nth_error_In in E. rewrite Forall_forall in H. specialize (H c E). unfold u_is_high, in_range. lia.
Qed.

Theorem truncate_agrees_ascii s n e : Forall (fun c => c < 128) s -> (0 <= n)%Z ->
  truncate s n e = Ok (u_truncate s n e).
Proof.
  intros Ha Hn. destruct (Z.leb_spec (Z.of_nat (length s)) n) as [Hfit|Hcut].
  - rewrite truncate_fits, u_truncate_fits by exact Hfit. reflexivity.
  - rewrite truncate_unfold by exact Hcut. unfold u_truncate.
    destruct (Z.of_nat (length s) <=? n)%Z eqn:E; [lia|].
    assert ((if e then if (n >? 3)%Z then ((n - 3)%Z, true) else (n, false) else (n, false)) = (trunc_cut n e, trunc_ell n e)) as ->.
    { unfold trunc_cut, trunc_ell. destruct e; cbn [andb]; [destruct (n >? 3)%Z|]; reflexivity. }
    rewrite ascii_not_high by exact Ha. cbn [andb].
    assert (0 <= trunc_cut n e <= n)%Z as Hc by (unfold trunc_cut; destruct (e && (n >? 3)%Z) eqn:Ee; lia).
    assert (back_to_rune_start (length s) s (trunc_cut n e) = Ok (trunc_cut n e)) as ->.
    { destruct (length s) as [|f] eqn:El; [lia|]. cbn [back_to_rune_start].
      destruct (trunc_cut n e <? 0)%Z eqn:En; [lia|].
      destruct (nth_error s (Z.to_nat (trunc_cut n e))) as [c|] eqn:Ec.
      - apply nth_error_In in Ec. rewrite Forall_forall in Ha. specialize (Ha c Ec).
        assert (rune_start c = true) as -> by (unfold rune_start, is_cont, in_range; lia). reflexivity.
      - apply nth_error_None in Ec. lia. }
    reflexivity.
Qed.

(* changeNewlineToBr: the line-break pass is the same function on bytes and on code units *)
Theorem newline_to_br_agrees s : u_newline_to_br s = nl2br s.
Proof. reflexivity. Qed.
