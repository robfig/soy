(* Bytes <-> lines of a PO file, and the whole entry the extractor writes (Model/PoEntry.v):
   - scan_lines inverts join_lines on newline-free lines up to the carriage return bufio.ScanLines
     drops (scan_lines_join_lines), and every line Message.WriteTo writes for the quoted fields is
     such a line (fields_lines_ok);
   - the entry xgettext-soy writes for ANY description (newlines, carriage returns, anything), id and
     plural variable is read back by Parse's message literal with the references "id=<id>" (and
     "var=<name>") and the quoted fields as written (extract_entry_roundtrip), through the BYTES of
     the file; pomsg.newBundle's loop over the references finds that id and that variable
     (refs_id_var);
   - before repair a5cfda0 (the description written as one value) a two-line description loses the
     reference (pinned_entry_loses_id). *)
From Coq Require Import Lia ZifyBool List Bool.
From Soy Require Import Model.Bytes Model.Outcome Model.Utf8 Model.PoFile Model.PoEntry Proofs.Utf8Proofs Proofs.PoFileProofs.
Import ListNotations.
Open Scope N_scope.

Definition nl_free (l : bstr) : Prop := Forall (fun c => c <> 10) l.

Lemma scan_lines_line : forall l cur rest, nl_free l ->
  scan_lines cur (l ++ 10 :: rest) = drop_cr (cur ++ l) :: scan_lines [] rest.
Proof.
  induction l as [|c l IH]; intros cur rest H.
  - cbn [app scan_lines]. rewrite app_nil_r. reflexivity.
  - inversion H as [|? ? Hc Hl]; subst. cbn [app scan_lines].
    replace (c =? 10) with false by lia. rewrite IH by exact Hl. rewrite <- app_assoc. reflexivity.
Qed.

(* a file written line by line, followed by anything *)
Theorem scan_lines_join_app : forall ls rest, Forall nl_free ls ->
  scan_lines [] (join_lines ls ++ rest) = map drop_cr ls ++ scan_lines [] rest.
Proof.
  induction ls as [|l ls IH]; intros rest H; [reflexivity|].
  inversion H as [|? ? Hl Hls]; subst. unfold join_lines in *. cbn [flat_map map app].
  rewrite <- !app_assoc. cbn [app]. rewrite scan_lines_line by exact Hl. cbn [app]. rewrite IH by exact Hls. reflexivity.
Qed.

Lemma scan_lines_nil : scan_lines [] [] = [].
Proof. reflexivity. Qed.

Theorem scan_lines_join_cr : forall ls, Forall nl_free ls -> scan_lines [] (join_lines ls) = map drop_cr ls.
Proof.
  intros ls H. pose proof (scan_lines_join_app ls [] H) as E. rewrite !app_nil_r in E. exact E.
Qed.

Definition line_ok (l : bstr) : Prop := nl_free l /\ drop_cr l = l.

Lemma lines_ok_nl_free ls : Forall line_ok ls -> Forall nl_free ls.
Proof. apply Forall_impl. intros l [Hl _]. exact Hl. Qed.

Lemma map_drop_cr_ok ls : Forall line_ok ls -> map drop_cr ls = ls.
Proof. intro H. induction H as [|l ls [_ Hl] _ IH]; [reflexivity|]. cbn [map]. rewrite Hl, IH. reflexivity. Qed.

(* the lines of a file come back as written when none has a newline inside or a carriage return at its end *)
Theorem scan_lines_join_lines : forall ls, Forall (fun l => nl_free l /\ drop_cr l = l) ls ->
  scan_lines [] (join_lines ls) = ls.
Proof. intros ls H. rewrite scan_lines_join_cr by (apply lines_ok_nl_free, H). apply map_drop_cr_ok, H. Qed.

Lemma drop_cr_snoc m c : drop_cr (m ++ [c]) = if c =? 13 then m else m ++ [c].
Proof.
  unfold drop_cr. rewrite rev_app_distr. cbn [rev app].
  destruct (N.eqb_spec c 13) as [->|H]; [apply rev_involutive|].
  destruct c as [|p]; [reflexivity|]. do 4 (destruct p as [p|p|]; try reflexivity). congruence.
Qed.

Lemma drop_cr_last m c : c <> 13 -> drop_cr (m ++ [c]) = m ++ [c].
Proof. intro H. rewrite drop_cr_snoc. replace (c =? 13) with false by lia. reflexivity. Qed.

Lemma drop_cr_nil : drop_cr [] = [].
Proof. reflexivity. Qed.

(* decimal digits (no section variable: used by Proofs/PoBundleProofs.v as they stand) *)
Lemma dec_digits_range fuel : forall n acc, Forall (fun c => 48 <= c <= 57) acc -> Forall (fun c => 48 <= c <= 57) (dec_digits fuel n acc).
Proof.
  induction fuel as [|f IH]; intros n acc H; cbn [dec_digits]; [exact H|].
  assert (H' : Forall (fun c => 48 <= c <= 57) ((48 + n mod 10) :: acc)).
  { constructor; [|exact H]. pose proof (N.mod_upper_bound n 10 ltac:(lia)). lia. }
  destruct (n / 10 =? 0); [exact H'|apply IH; exact H'].
Qed.
Lemma dec_of_N_range n : Forall (fun c => 48 <= c <= 57) (dec_of_N n).
Proof. apply dec_digits_range. constructor. Qed.
Lemma dec_digits_nonempty f : forall n acc, acc <> [] -> dec_digits f n acc <> [].
Proof.
  induction f as [|f IH]; intros n acc Ha; cbn [dec_digits]; [exact Ha|].
  destruct (n / 10 =? 0); [discriminate|apply IH; discriminate].
Qed.
Lemma dec_of_N_last n : exists m c, dec_of_N n = m ++ [c] /\ 48 <= c <= 57.
Proof.
  assert (Hne : dec_of_N n <> []).
  { unfold dec_of_N. cbn [dec_digits]. destruct (n / 10 =? 0); [discriminate|apply dec_digits_nonempty; discriminate]. }
  destruct (exists_last Hne) as (m & c & E). exists m, c. split; [exact E|].
  pose proof (dec_of_N_range n) as H. rewrite E in H. apply Forall_app in H. destruct H as [_ H]. inversion H; assumption.
Qed.

Section Po.
Variable is_print : N -> bool.

Lemma nl_free_app a c : nl_free a -> nl_free c -> nl_free (a ++ c).
Proof. apply Forall_app_2. Qed.

Lemma hexdig_nl n : hexdig n <> 10.
Proof. unfold hexdig. destruct (n <? 10); lia. Qed.

Lemma encode_rune_nl r : r <> 10 -> nl_free (encode_rune r).
Proof.
  intro H. unfold encode_rune, nl_free.
  destruct (r <? 128); [repeat constructor; exact H|].
  destruct (r <? 2048); [repeat constructor; lia|].
  destruct (in_range 55296 57343 r || (1114111 <? r)); [repeat constructor; lia|].
  destruct (r <? 65536); repeat constructor; lia.
Qed.

Lemma esc_rune_nl r : nl_free (esc_rune is_print r).
Proof.
  unfold esc_rune, nl_free.
  destruct ((r =? 34) || (r =? 92)) eqn:E1; [repeat constructor; lia|].
  destruct (printable is_print r) eqn:Ep.
  { apply encode_rune_nl. unfold printable in Ep. destruct (r <? 128) eqn:E; [lia|lia]. }
  pose proof (hexdig_nl) as Hh.
  repeat match goal with |- context [if ?c then _ else _] => destruct c end;
    unfold hex8, hex4, hex2; cbn [app]; repeat constructor; try lia; apply Hh.
Qed.

Lemma quote_go_nl : forall f s, nl_free (quote_go is_print f s).
Proof.
  induction f as [|f IH]; intro s; cbn [quote_go]; [constructor|].
  destruct s as [|c s']; [constructor|].
  destruct (if c <? 128 then (c, 1%nat) else decode_rune (c :: s')) as [r w].
  destruct (Nat.eqb w 1 && (r =? rune_error)).
  - unfold hex2. repeat (apply Forall_cons; [first [lia|apply hexdig_nl]|]). apply IH.
  - apply nl_free_app; [apply esc_rune_nl|apply IH].
Qed.

Lemma go_quote_ok v : line_ok (po_go_quote is_print v).
Proof.
  unfold po_go_quote, quote_body. split.
  - constructor; [lia|]. apply nl_free_app; [apply quote_go_nl|repeat constructor; lia].
  - change (34 :: quote_go is_print (length v) v ++ [34]) with ((34 :: quote_go is_print (length v) v) ++ [34]).
    apply drop_cr_last. lia.
Qed.

Lemma prefix_quote_ok P v : nl_free P -> line_ok (P ++ po_go_quote is_print v).
Proof.
  intros HP. destruct (go_quote_ok v) as [H1 _]. split; [apply nl_free_app; assumption|].
  unfold po_go_quote. change (34 :: quote_body is_print v ++ [34]) with ((34 :: quote_body is_print v) ++ [34]).
  rewrite app_assoc. apply drop_cr_last. lia.
Qed.

Lemma po_quo_ok P v : nl_free P -> Forall line_ok (po_quo is_print P v).
Proof.
  intro HP. unfold po_quo. destruct (negb (contains v 10)).
  - constructor; [apply prefix_quote_ok; exact HP|constructor].
  - constructor.
    + split; [apply nl_free_app; [exact HP|repeat constructor; lia]|].
      change [34; 34] with ([34] ++ [34]). rewrite app_assoc. apply drop_cr_last. lia.
    + apply Forall_forall. intros l Hl. apply in_map_iff in Hl. destruct Hl as (x & <- & _). apply go_quote_ok.
Qed.

Lemma po_opt_ok P v : nl_free P -> Forall line_ok (po_opt is_print P v).
Proof. intro HP. unfold po_opt. destruct v; [constructor|apply po_quo_ok; exact HP]. Qed.

Lemma dec_of_N_nl n : nl_free (dec_of_N n).
Proof. eapply Forall_impl; [|apply dec_of_N_range]. cbn beta. intros; lia. Qed.

Lemma msgstr_n_nl i : nl_free (msgstr_n i).
Proof.
  unfold msgstr_n. apply nl_free_app; [repeat constructor; lia|]. apply nl_free_app; [apply dec_of_N_nl|repeat constructor; lia].
Qed.

Lemma po_plural_from_ok : forall vals i, Forall line_ok (po_plural_from is_print i vals).
Proof.
  induction vals as [|v vals IH]; intro i; cbn [po_plural_from]; [constructor|].
  apply Forall_app_2; [apply po_quo_ok; apply msgstr_n_nl|apply IH].
Qed.

(* every line Message.WriteTo writes for the quoted fields: no newline inside, no carriage return at the end *)
Theorem fields_lines_ok (m : po_fields) : Forall line_ok (po_write_fields is_print m).
Proof.
  unfold po_write_fields. repeat apply Forall_app_2.
  - apply po_opt_ok. repeat constructor; lia.
  - apply po_quo_ok. repeat constructor; lia.
  - apply po_opt_ok. repeat constructor; lia.
  - destruct (pf_id_plural m).
    + unfold po_msgstr. destruct (pf_str m); apply po_quo_ok; repeat constructor; lia.
    + unfold po_plural. destruct (pf_str m); [apply po_quo_ok; apply msgstr_n_nl|apply po_plural_from_ok].
Qed.

(* the bytes of the quoted fields of a message, read as lines, are the lines written *)
Theorem fields_bytes_lines (m : po_fields) :
  scan_lines [] (join_lines (po_write_fields is_print m)) = po_write_fields is_print m.
Proof. apply scan_lines_join_lines. apply fields_lines_ok. Qed.

Definition no_space (w : bstr) : Prop := Forall (fun c => is_space c = false) w.

Lemma trim_space_sp d : trim_space (32 :: d) = trim_space d.
Proof. reflexivity. Qed.

Lemma trim_space_word c m c' m' : c :: m = m' ++ [c'] -> is_space c = false -> is_space c' = false ->
  trim_space (c :: m) = c :: m.
Proof.
  intros E Hc Hc'. unfold trim_space. cbn [trim_left]. rewrite Hc. rewrite E. rewrite rev_app_distr. cbn [rev app trim_left].
  rewrite Hc'. cbn [rev]. rewrite rev_involutive. reflexivity.
Qed.

Lemma fields_go_word : forall w cur rest, no_space w -> pe_fields_go cur (w ++ rest) = pe_fields_go (cur ++ w) rest.
Proof.
  induction w as [|c w IH]; intros cur rest H; [rewrite app_nil_r; reflexivity|].
  inversion H as [|? ? Hc Hw]; subst. cbn [app pe_fields_go]. rewrite Hc. rewrite IH by exact Hw.
  rewrite <- app_assoc. reflexivity.
Qed.

Lemma fields_one w : w <> [] -> no_space w -> pe_fields w = [w].
Proof.
  intros Hne H. unfold pe_fields. pose proof (fields_go_word w [] [] H) as E. rewrite app_nil_r in E. rewrite E.
  cbn [app pe_fields_go]. destruct w; [congruence|reflexivity].
Qed.

Lemma fields_two w1 w2 : w1 <> [] -> w2 <> [] -> no_space w1 -> no_space w2 -> pe_fields (w1 ++ 32 :: w2) = [w1; w2].
Proof.
  intros H1 H2 N1 N2. unfold pe_fields. rewrite fields_go_word by exact N1. cbn [app pe_fields_go].
  change (is_space 32) with true. cbv iota. destruct w1 as [|c w1]; [congruence|].
  fold (pe_fields w2). rewrite fields_one by assumption. reflexivity.
Qed.

Lemma digits_no_space l : Forall (fun c => 48 <= c <= 57) l -> no_space l.
Proof.
  intro H. eapply Forall_impl; [|exact H]. cbn beta. intros c Hc. unfold is_space, in_range. lia.
Qed.

Lemma no_space_last v : v <> [] -> no_space v -> exists m c, v = m ++ [c] /\ is_space c = false.
Proof.
  intros Hne Hs. destruct (exists_last Hne) as (m & c & E). exists m, c. split; [exact E|].
  rewrite E in Hs. apply Forall_app in Hs. destruct Hs as [_ Hl]. inversion Hl; assumption.
Qed.

Definition var_ok (pv : option bstr) : Prop :=
  match pv with Some v => v <> [] /\ no_space v /\ nl_free v | None => True end.

Definition refs_of (id : N) (pv : option bstr) : list bstr :=
  (pe_id_eq ++ dec_of_N id) :: match pv with Some v => [pe_var_eq ++ v] | None => [] end.

Lemma id_word id : pe_id_eq ++ dec_of_N id <> [] /\ no_space (pe_id_eq ++ dec_of_N id).
Proof.
  split; [discriminate|]. apply Forall_app_2; [repeat constructor|]. apply digits_no_space, dec_of_N_range.
Qed.

Lemma reference_fields id pv : var_ok pv -> pe_fields (trim_space (32 :: pe_reference id pv)) = refs_of id pv.
Proof.
  intro Hv. rewrite trim_space_sp. unfold pe_reference, refs_of.
  destruct (id_word id) as [Hne Hns]. destruct pv as [v|].
  - destruct Hv as (Hvne & Hvs & _).
    destruct (no_space_last v Hvne Hvs) as (vm & vc & Ev & Hvc).
    assert (Et : trim_space (pe_id_eq ++ dec_of_N id ++ pe_sp_var_eq ++ v) = pe_id_eq ++ dec_of_N id ++ pe_sp_var_eq ++ v).
    { change (pe_id_eq ++ dec_of_N id ++ pe_sp_var_eq ++ v) with (105 :: (100 :: 61 :: dec_of_N id ++ pe_sp_var_eq ++ v)).
      eapply trim_space_word with (c' := vc) (m' := 105 :: 100 :: 61 :: dec_of_N id ++ pe_sp_var_eq ++ vm); [|reflexivity|exact Hvc].
      rewrite Ev. cbn [app]. rewrite <- !app_assoc. reflexivity. }
    rewrite Et. rewrite app_assoc. change (pe_sp_var_eq ++ v) with (32 :: (pe_var_eq ++ v)).
    apply fields_two; [exact Hne|discriminate|exact Hns|].
    apply Forall_app_2; [repeat constructor|exact Hvs].
  - rewrite app_nil_r. destruct (dec_of_N_last id) as (dm & dc & Ed & Hdc).
    assert (Et : trim_space (pe_id_eq ++ dec_of_N id) = pe_id_eq ++ dec_of_N id).
    { change (pe_id_eq ++ dec_of_N id) with (105 :: (100 :: 61 :: dec_of_N id)).
      eapply trim_space_word with (c' := dc) (m' := 105 :: 100 :: 61 :: dm); [rewrite Ed; reflexivity|reflexivity|].
      unfold is_space, in_range. lia. }
    rewrite Et. apply fields_one; assumption.
Qed.

Lemma reference_line_ok id pv : var_ok pv -> line_ok (pe_w_reference ++ pe_reference id pv).
Proof.
  intro Hv. unfold pe_reference.
  pose proof (dec_of_N_nl id) as Hd.
  destruct pv as [v|].
  - destruct Hv as (Hvne & Hvs & Hvn). split.
    + repeat apply nl_free_app; try exact Hd; try exact Hvn; repeat constructor; lia.
    + destruct (no_space_last v Hvne Hvs) as (vm & vc & Ev & Hvc).
      rewrite Ev. rewrite !app_assoc. apply drop_cr_last. intros ->. discriminate.
  - rewrite app_nil_r. split.
    + repeat apply nl_free_app; try exact Hd; repeat constructor; lia.
    + destruct (dec_of_N_last id) as (dm & dc & Ed & Hdc). rewrite Ed, !app_assoc. apply drop_cr_last. lia.
Qed.

(* what pomsg.newBundle takes from these references: that id (its decimal text) and that variable *)
Theorem refs_id_var id pv : pe_refs_id_var (refs_of id pv) None None = (Some (dec_of_N id), pv).
Proof. unfold refs_of. destruct pv as [v|]; reflexivity. Qed.

Definition not_extracted (rest : list bstr) : Prop :=
  match rest with l :: _ => is_prefix pe_r_extracted l = false | [] => False end.

Lemma r_mul_extracted : forall dl acc rest e fuel, not_extracted rest -> (length dl < fuel)%nat ->
  pe_r_mul fuel pe_r_extracted acc (scan_of (map (fun d => pe_w_extracted ++ d) dl ++ rest) e)
  = Ok (acc ++ map trim_space dl, scan_of rest e).
Proof.
  induction dl as [|d dl IH]; intros acc rest e fuel Hr Hf; (destruct fuel as [|fuel]; [cbn in Hf; lia|]).
  - cbn [map app pe_r_mul]. destruct rest as [|l rest]; [contradiction|]. unfold not_extracted in Hr.
    unfold sc_prefix. cbn [scan_of hd sc_cur]. rewrite Hr, app_nil_r. reflexivity.
  - cbn [map app pe_r_mul]. unfold sc_prefix at 1. cbn [scan_of hd sc_cur].
    change (is_prefix pe_r_extracted (pe_w_extracted ++ d)) with true. cbv iota.
    rewrite sc_scan_of.
    assert (Hne : map (fun d0 => pe_w_extracted ++ d0) dl ++ rest <> []).
    { destruct rest; [contradiction|]. destruct dl; discriminate. }
    destruct (map (fun d0 => pe_w_extracted ++ d0) dl ++ rest) as [|x xs] eqn:E; [congruence|]. rewrite <- E.
    rewrite IH by (auto; cbn in Hf; lia).
    unfold sc_txt. cbn [scan_of hd sc_cur]. change (drop (length pe_r_extracted) (pe_w_extracted ++ d)) with (32 :: d).
    rewrite trim_space_sp, <- app_assoc. reflexivity.
Qed.

Notation po_write_fields := (po_write_fields is_print).

(* the first line of the quoted fields carries a keyword, not a comment *)
Lemma fields_first (m : po_fields) : exists x more,
  po_write_fields m = (109 :: x) :: more.
Proof.
  unfold PoFile.po_write_fields, po_opt. destruct (pf_ctxt m).
  - destruct (po_quo_first is_print p_msgid (pf_id m)) as (x & more & E). cbn [app]. rewrite E. unfold p_msgid. cbn [app]. eexists; eexists; reflexivity.
  - destruct (po_quo_first is_print p_msgctxt (n :: b)) as (x & more & E). rewrite E. unfold p_msgctxt. cbn [app]. eexists; eexists; reflexivity.
Qed.

Lemma fields_not_comment (m : po_fields) tail e P : hd_error P = Some 35 ->
  sc_prefix P (scan_of (po_write_fields m ++ tail) e) = false.
Proof.
  intro HP. destruct (fields_first m) as (x & more & ->). destruct P as [|c P]; [discriminate|].
  injection HP as ->. reflexivity.
Qed.

(* Parse's message literal on the lines of the extractor's entry (any description lines) *)
Theorem read_entry_lines (dl : list bstr) (id : N) (pv : option bstr) (f : po_fields) (tail : list bstr) (e : bool) :
  dl <> [] -> var_ok pv -> fields_bytes f -> blank_next tail ->
  pe_read_message
    (scan_of (map (fun d => pe_w_extracted ++ d) dl ++ (pe_w_reference ++ pe_reference id pv) :: po_write_fields f ++ tail) e)
  = Ok ({| pm_comment := {| pc_translator := []; pc_extracted := map trim_space dl; pc_refs := refs_of id pv; pc_flags := [];
                            pc_prev_ctxt := []; pc_prev_id := []; pc_prev_id_plural := [] |};
           pm_fields := {| pf_ctxt := pf_ctxt f; pf_id := pf_id f; pf_id_plural := pf_id_plural f; pf_str := norm_str f |} |},
        scan_of tail e).
Proof.
  intros Hdl Hv Hf Ht. unfold pe_read_message.
  set (L := map (fun d => pe_w_extracted ++ d) dl ++ (pe_w_reference ++ pe_reference id pv) :: po_write_fields f ++ tail).
  set (fuel := S (S (length (sc_rest (scan_of L e))))).
  (* "# " *)
  assert (E1 : pe_r_mul fuel pe_r_translator [] (scan_of L e) = Ok ([], scan_of L e)).
  { subst fuel. cbn [pe_r_mul]. subst L. destruct dl as [|d dl]; [congruence|]. reflexivity. }
  rewrite E1. cbn [bind].
  (* "#." *)
  assert (E2 : pe_r_mul fuel pe_r_extracted [] (scan_of L e)
               = Ok (map trim_space dl, scan_of ((pe_w_reference ++ pe_reference id pv) :: po_write_fields f ++ tail) e)).
  { subst L. rewrite r_mul_extracted; [reflexivity|reflexivity|].
    subst fuel. cbn [scan_of sc_rest]. destruct dl as [|d dl]; [congruence|]. cbn [map app tl length]. rewrite app_length, map_length. lia. }
  rewrite E2. cbn [bind].
  (* "#:" *)
  unfold pe_r_spc at 1. unfold sc_prefix at 1. cbn [scan_of hd sc_cur].
  change (is_prefix pe_r_reference (pe_w_reference ++ pe_reference id pv)) with true. cbv iota.
  unfold sc_txt. cbn [scan_of hd sc_cur]. change (drop (length pe_r_reference) (pe_w_reference ++ pe_reference id pv)) with (32 :: pe_reference id pv).
  rewrite reference_fields by exact Hv.
  rewrite sc_scan_of. cbn [snd].
  (* "#," and the three "#|" *)
  unfold pe_r_spc, pe_r_one. rewrite !fields_not_comment by reflexivity.
  (* the quoted fields *)
  rewrite po_fields_roundtrip by assumption. reflexivity.
Qed.

Lemma split_nl_free : forall s cur, nl_free cur -> Forall nl_free (pe_split_nl cur s).
Proof.
  induction s as [|c s IH]; intros cur H; cbn [pe_split_nl]; [repeat constructor; exact H|].
  destruct (c =? 10) eqn:E.
  - constructor; [exact H|]. apply IH. constructor.
  - apply IH. apply nl_free_app; [exact H|]. repeat constructor. lia.
Qed.

Lemma split_nl_nonempty s cur : pe_split_nl cur s <> [].
Proof. revert cur; induction s as [|c s IH]; intro cur; cbn [pe_split_nl]; [discriminate|]. destruct (c =? 10); [discriminate|apply IH]. Qed.

Lemma split_nl_lines_nonempty desc : map drop_cr (pe_split_nl [] desc) <> [].
Proof. pose proof (split_nl_nonempty desc []) as H. destruct (pe_split_nl [] desc); [congruence|discriminate]. Qed.

(* only the last byte of a line can go, and "#. " does not end in a carriage return *)
Lemma drop_cr_extracted d : drop_cr (pe_w_extracted ++ d) = pe_w_extracted ++ drop_cr d.
Proof.
  destruct d as [|x d _] using rev_ind; [reflexivity|]. rewrite app_assoc, !drop_cr_snoc.
  destruct (x =? 13); [|rewrite app_assoc]; reflexivity.
Qed.

Lemma nl_free_drop_cr l : nl_free l -> nl_free (drop_cr l).
Proof.
  destruct l as [|c m _] using rev_ind; [auto|]. intro H. rewrite drop_cr_snoc.
  destruct (c =? 13); [apply Forall_app in H; apply H|exact H].
Qed.

(* the lines, as the reader gets them, of the bytes of one entry followed by an empty line and anything *)
Lemma entry_bytes_lines (dl : list bstr) id pv f rest : Forall nl_free dl -> var_ok pv ->
  scan_lines [] (join_lines (pe_write_message is_print {| pm_comment := pe_comment_of dl (pe_reference id pv); pm_fields := f |}) ++ 10 :: rest)
  = map (fun d => pe_w_extracted ++ d) (map drop_cr dl) ++ (pe_w_reference ++ pe_reference id pv) :: po_write_fields f ++ [] :: scan_lines [] rest.
Proof.
  intros Hdl Hv. unfold pe_write_message, pe_write_comment, pe_comment_of. cbn [pm_comment pm_fields pc_translator pc_extracted pc_refs pc_flags pc_prev_ctxt pc_prev_id pc_prev_id_plural].
  cbn [pe_w_mul map pe_w_spc pe_w_one pe_join_sp app]. rewrite <- app_assoc.
  set (W := pe_w_mul pe_w_extracted dl ++ [pe_w_reference ++ pe_reference id pv] ++ po_write_fields f).
  change (10 :: rest) with (([] ++ [10]) ++ rest).
  assert (Ej : forall r, join_lines W ++ ([] ++ [10]) ++ r = join_lines (W ++ [[]]) ++ r).
  { intro r. unfold join_lines. rewrite flat_map_app. cbn [flat_map]. rewrite app_nil_r. cbn [app]. rewrite <- app_assoc. reflexivity. }
  rewrite Ej. rewrite scan_lines_join_app.
  - subst W. rewrite !map_app. cbn [map].
    destruct (reference_line_ok id pv Hv) as [_ Er]. rewrite Er.
    assert (Efl : map drop_cr (po_write_fields f) = po_write_fields f) by (apply map_drop_cr_ok, fields_lines_ok).
    unfold bstr in *. rewrite Efl. unfold pe_w_mul. rewrite !map_map. rewrite drop_cr_nil.
    rewrite <- !app_assoc. cbn [app]. f_equal. apply map_ext. intro d. apply drop_cr_extracted.
  - subst W. apply Forall_app_2; [apply Forall_app_2|repeat constructor].
    + unfold pe_w_mul. apply Forall_forall. intros l Hl. apply in_map_iff in Hl. destruct Hl as (d & <- & Hd).
      apply nl_free_app; [repeat constructor; lia|]. rewrite Forall_forall in Hdl. apply Hdl. exact Hd.
    + cbn [app]. constructor; [apply reference_line_ok; exact Hv|apply lines_ok_nl_free, fields_lines_ok].
Qed.

(* THE ENTRY OF THE EXTRACTOR, for every description: written by Message.WriteTo + the empty line of
   File.WriteTo, read as bytes by bufio.ScanLines and Parse's message literal: the references are
   "id=<id>" and, for a plural, "var=<name>"; msgctxt, msgid, msgid_plural, msgstr as written; the
   scanner stands on the empty line after the entry and has flagged no error. *)
Theorem extract_entry_roundtrip (desc : bstr) (id : N) (pv : option bstr) (f : po_fields) (rest : bstr) (e : bool) :
  var_ok pv -> fields_bytes f ->
  pe_read_message
    (scan_of (scan_lines [] (join_lines (pe_write_message is_print (pe_extract_entry desc id pv f)) ++ 10 :: rest)) e)
  = Ok ({| pm_comment := {| pc_translator := []; pc_extracted := map (fun d => trim_space (drop_cr d)) (pe_split_nl [] desc);
                            pc_refs := refs_of id pv; pc_flags := [];
                            pc_prev_ctxt := []; pc_prev_id := []; pc_prev_id_plural := [] |};
           pm_fields := {| pf_ctxt := pf_ctxt f; pf_id := pf_id f; pf_id_plural := pf_id_plural f; pf_str := norm_str f |} |},
        scan_of ([] :: scan_lines [] rest) e).
Proof.
  intros Hv Hf. unfold pe_extract_entry.
  rewrite entry_bytes_lines; [|apply split_nl_free; constructor|exact Hv].
  rewrite read_entry_lines; [rewrite map_map; reflexivity|apply split_nl_lines_nonempty|exact Hv|exact Hf|reflexivity].
Qed.

(* what the extractor knows of a message: description, id, plural variable, quoted fields *)
Definition xentry : Type := (bstr * N * option bstr * po_fields)%type.
Definition xentry_ok (t : xentry) : Prop := let '(_, _, pv, f) := t in var_ok pv /\ fields_bytes f.
Definition xentry_msg (t : xentry) : pe_message := let '(desc, id, pv, f) := t in pe_extract_entry desc id pv f.
(* ... and what Parse makes of its entry *)
Definition xentry_read (t : xentry) : pe_message :=
  let '(desc, id, pv, f) := t in
  {| pm_comment := {| pc_translator := []; pc_extracted := map (fun d => trim_space (drop_cr d)) (pe_split_nl [] desc);
                      pc_refs := refs_of id pv; pc_flags := [];
                      pc_prev_ctxt := []; pc_prev_id := []; pc_prev_id_plural := [] |};
     pm_fields := {| pf_ctxt := pf_ctxt f; pf_id := pf_id f; pf_id_plural := pf_id_plural f; pf_str := norm_str f |} |}.
Definition xentry_lines (t : xentry) : list bstr :=
  let '(desc, id, pv, f) := t in
  map (fun d => pe_w_extracted ++ d) (map drop_cr (pe_split_nl [] desc)) ++ (pe_w_reference ++ pe_reference id pv) :: po_write_fields f.

Lemma join_lines_app a c : join_lines (a ++ c) = join_lines a ++ join_lines c.
Proof. unfold join_lines. apply flat_map_app. Qed.

Lemma file_lines : forall es, Forall xentry_ok es ->
  scan_lines [] (pe_write_file is_print (map xentry_msg es)) = flat_map (fun t => xentry_lines t ++ [[]]) es.
Proof.
  induction es as [|t es IH]; intro H; [reflexivity|]. destruct t as [[[desc id] pv] f].
  inversion H as [|? ? Hok Hes]; subst. unfold xentry_ok in Hok. destruct Hok as [Hv Hf]. unfold pe_write_file in *. cbn [map flat_map xentry_msg].
  rewrite <- app_assoc, join_lines_app. change (join_lines ([[]] ++ ?x)) with (10 :: join_lines x).
  unfold pe_extract_entry. rewrite entry_bytes_lines; [|apply split_nl_free; constructor|exact Hv].
  rewrite IH by exact Hes. cbn [xentry_lines]. rewrite <- !app_assoc. reflexivity.
Qed.

Lemma trim_left_tail_len (x : bstr) : (2 <= length (trim_left (x ++ [46%N; 35%N])))%nat.
Proof.
  induction x as [|c x IH]; [vm_compute; lia|]. cbn [app trim_left]. destruct (is_space c); [exact IH|].
  cbn [length]. rewrite app_length. cbn. lia.
Qed.

Lemma extracted_line_counts d : Nat.ltb 1 (length (trim_space (pe_w_extracted ++ d))) = true.
Proof.
  apply Nat.ltb_lt. unfold trim_space. rewrite rev_length.
  change (trim_left (pe_w_extracted ++ d)) with (35 :: 46 :: 32 :: d).
  replace (rev (35 :: 46 :: 32 :: d)) with ((rev d ++ [32]) ++ [46; 35]) by (cbn [rev]; rewrite <- !app_assoc; reflexivity).
  pose proof (trim_left_tail_len (rev d ++ [32])). lia.
Qed.

Lemma xentry_lines_first t : exists d more, xentry_lines t = (pe_w_extracted ++ d) :: more.
Proof.
  destruct t as [[[desc id] pv] f]. cbn [xentry_lines]. pose proof (split_nl_lines_nonempty desc) as H.
  destruct (map drop_cr (pe_split_nl [] desc)) as [|d ds]; [congruence|]. cbn [map app]. eauto.
Qed.

(* one turn of the loop of Parse on an entry of the extractor *)
Lemma parse_turn t R c fuel : xentry_ok t ->
  '(more, s1) <- pe_nextmsg (S fuel) {| sc_cur := c; sc_rest := xentry_lines t ++ [] :: R; sc_err := false |} ;;
  (if negb more then Ok (None, s1) else '(m, s2) <- pe_read_message s1 ;; Ok (Some m, s2))
  = Ok (Some (xentry_read t), {| sc_cur := []; sc_rest := R; sc_err := false |}).
Proof.
  intro Hok. destruct (xentry_lines_first t) as (d & more & El).
  cbn [pe_nextmsg sc_err]. unfold sc_scan. cbn [sc_rest]. rewrite El. cbn [app sc_cur sc_err].
  rewrite extracted_line_counts. cbn [negb bind].
  change {| sc_cur := pe_w_extracted ++ d; sc_rest := more ++ [] :: R; sc_err := false |}
    with (scan_of (((pe_w_extracted ++ d) :: more) ++ [] :: R) false).
  rewrite <- El. destruct t as [[[desc id] pv] f]. destruct Hok as [Hv Hf]. cbn [xentry_lines].
  rewrite <- app_assoc. cbn [app].
  rewrite read_entry_lines; [cbn [bind xentry_read]; rewrite map_map; reflexivity|apply split_nl_lines_nonempty|exact Hv|exact Hf|reflexivity].
Qed.

Lemma parse_loop_entries : forall es acc c fuel, Forall xentry_ok es -> (length es < fuel)%nat ->
  pe_parse_loop fuel acc {| sc_cur := c; sc_rest := flat_map (fun t => xentry_lines t ++ [[]]) es; sc_err := false |}
  = Ok (acc ++ map xentry_read es, {| sc_cur := []; sc_rest := []; sc_err := false |}).
Proof.
  induction es as [|t es IH]; intros acc c fuel H Hf; (destruct fuel as [|fuel]; [cbn in Hf; lia|]).
  - cbn [flat_map pe_parse_loop sc_rest length pe_nextmsg sc_err]. unfold sc_scan. cbn [sc_rest sc_err negb bind]. rewrite app_nil_r. reflexivity.
  - inversion H as [|? ? Ht Hes]; subst. cbn [flat_map pe_parse_loop sc_rest].
    rewrite <- app_assoc. cbn [app].
    pose proof (parse_turn t (flat_map (fun t0 => xentry_lines t0 ++ [[]]) es) c
                  (S (length (xentry_lines t ++ [] :: flat_map (fun t0 => xentry_lines t0 ++ [[]]) es))) Ht) as Hturn.
    destruct (pe_nextmsg _ _) as [[more s1]| | | | | ]; cbn [bind] in Hturn |- *; try discriminate.
    destruct more; cbn [negb] in Hturn |- *; [|discriminate].
    destruct (pe_read_message s1) as [[m s2]| | | | | ]; cbn [bind] in Hturn |- *; try discriminate.
    inversion Hturn; subst. rewrite IH; [|exact Hes|cbn in Hf; lia].
    cbn [map]. rewrite <- app_assoc. reflexivity.
Qed.

(* every entry takes at least one line, so the lines of a file are fuel enough for the loop *)
Lemma entries_lines_length es : (length es <= length (flat_map (fun t => xentry_lines t ++ [[]]) es))%nat.
Proof.
  induction es as [|t es IH]; [cbn; lia|]. cbn [flat_map length]. rewrite !app_length.
  destruct (xentry_lines_first t) as (d & more & El). rewrite El. cbn [length]. lia.
Qed.

(* THE FILE xgettext-soy writes for any list of messages (any descriptions), read by po.Parse: every entry
   comes back, in order, with its references and quoted fields; no error *)
Theorem parse_extracted_file (es : list xentry) : Forall xentry_ok es ->
  pe_parse (pe_write_file is_print (map xentry_msg es)) = Ok (map xentry_read es).
Proof.
  intro H. unfold pe_parse. rewrite file_lines by exact H.
  rewrite parse_loop_entries; [reflexivity|exact H|]. pose proof (entries_lines_length es). cbn [sc_rest]. lia.
Qed.

End Po.

Definition ex_fields : po_fields :=
  {| pf_ctxt := []; pf_id := b "Hello {NAME}"; pf_id_plural := []; pf_str := [] |}.
Definition ex_desc : bstr := b "first line" ++ [10] ++ b "second line".

(* the description written as ONE "#. " value: its second line lands inside the entry, and the message
   Parse reads has no reference at all -- pomsg.newBundle: "no id found in message" *)
Theorem pinned_entry_loses_id :
  exists m s, pe_read_message
      (scan_of (scan_lines [] (join_lines (pe_write_message (fun _ => true) (pe_extract_entry_pinned ex_desc 42 None ex_fields)) ++ [10])) false)
    = Ok (m, s) /\ pc_refs (pm_comment m) = [] /\ pf_id (pm_fields m) = [].
Proof. eexists; eexists. vm_compute. repeat split. Qed.

(* the same entry after the repair, by computation *)
Example repaired_entry_keeps_id :
  exists m s, pe_read_message
      (scan_of (scan_lines [] (join_lines (pe_write_message (fun _ => true) (pe_extract_entry ex_desc 42 None ex_fields)) ++ [10])) false)
    = Ok (m, s) /\ pc_refs (pm_comment m) = [b "id=42"] /\ pf_id (pm_fields m) = b "Hello {NAME}"
       /\ pc_extracted (pm_comment m) = [b "first line"; b "second line"].
Proof. eexists; eexists. vm_compute. repeat split. Qed.
