(* C04, one whole file: soyjs.Write (Model/JsGen.v gen_file) on a file of the subset.

   A file is a namespace declaration followed by the soydoc + template nodes of a program p (Model/MiniJSProg.v).
   [gen_file_chunks]   -- gen_file answers Ok with exactly: the two header comment lines and the blank line of
                          visitSoyFile, one declaration line per dotted prefix of the namespace (visitNamespace), and
                          the PRINTED FUNCTION TABLE c04_jprog_chain p 0 (one function per template, each generated
                          from the counter the previous template left); no import lines, because the formatter writes
                          none (c04_imp_free: ES5) -- the frame conjunct of [gres] carries "the import table is
                          untouched" through every statement of every template;
   [gen_file_correct_partial] -- and every function of that table returns what Renderer.Execute writes
                          (js_call_correct_tbl + c04_jprog_chain_ok + go_render_correct);
   [gen_registry_correct_partial] -- the same for a registry of several files, calls across files included.
   What stays outside: see the comment at the theorem. *)
From Soy Require Import Model.Bytes Model.Num Model.Values Model.Outcome Model.Ast Model.JsGen Model.MiniJS Model.MiniJSProg
  Model.Escape Model.Directives Model.Print Generated.Tables Model.Interp Spec.JsOut
  Proofs.EscapeProofs Proofs.MiniJSProofs Proofs.MiniJSPrint Proofs.MiniJSStmt Model.MsgId Proofs.MsgIdProofs
  Proofs.MiniJSCtl Proofs.MiniJSGo Proofs.MiniJSGen Proofs.MiniJSSim Proofs.MiniJSCall.
Open Scope N_scope.

(* the nodes of a file: {namespace ns autoescape=..}, then per template its soydoc comment and the template *)
Definition c04_file_nodes (ns : bstr) (nsae : N) (p : list ctmpl) : list node :=
  NNamespace 0 ns nsae :: flat_map c04_doc_nodes p.

(* visitSoyFile's three lines *)
Definition c04_file_header (fname : bstr) : list chunk :=
  (sp_ind 0 ++ [CText t_hdr1; CFile (line_comment_safe fname); CText t_dot] ++ [CText t_nl])
  ++ (sp_ind 0 ++ [CText t_hdr2] ++ [CText t_nl])
  ++ (sp_ind 0 ++ [] ++ [CText t_nl]).
(* visitNamespace: one line per dotted prefix,  if (typeof a.b == 'undefined') { [var ]a.b = {}; } *)
Definition c04_decl_line (i : nat) (pre : bstr) : list chunk :=
  sp_ind i ++ ([CText t_ns1; CName pre; CText t_ns2] ++ (if has_dot pre then [] else [CText t_var]) ++ [CName pre; CText t_ns3]) ++ [CText t_nl].
Definition c04_ns_lines (ns : bstr) : list chunk := flat_map (c04_decl_line 0) (ns_prefix_list ns).

Lemma c04_find_dot_ge : forall s i j, find_dot s i = Some j -> (i <= j)%nat.
Proof.
  induction s as [|c r IH]; intros i j E; cbn [find_dot] in E; [discriminate|].
  destruct (c =? 46); [injection E as <-; lia|]. specialize (IH _ _ E). lia.
Qed.

Section FileChunks.
Variable o : jopts.

(* a function table, printed: visitTemplate's lines for each entry in order *)
Definition c04_table_chunks (jp : list (bstr * (bool * jblk))) : list chunk :=
  flat_map (fun e => c04_tprint (template_header_line o (fst e)) (fst (snd e)) (snd (snd e))) jp.
Lemma c04_file_chunks_table p : forall n, c04_file_chunks o p n = c04_table_chunks (c04_jprog_chain p n).
Proof.
  induction p as [|t r IH]; intro n; [reflexivity|].
  unfold c04_file_chunks, c04_table_chunks, c04_jprog_chain. cbn [c04_chain map flat_map fst snd]. f_equal. apply IH.
Qed.

Lemma gres_ns_decls name : forall f i0 st i b a s n, (length name - i0 < f)%nat -> shape st i b a s n ->
  gres o (ns_decls f name i0) st (flat_map (c04_decl_line i) (ns_prefixes f name i0)) i b a s n.
Proof.
  induction f as [|f IH]; intros i0 st i b a s n Hf Hs; [lia|]. cbn [ns_decls ns_prefixes]. cbv zeta.
  destruct (Nat.ltb_spec i0 (length name)) as [Hlt|Hge]; [|apply gres_ret; exact Hs].
  cbn [flat_map]. eapply gres_bind; [apply gres_sln; exact Hs|]. intros x Hx. apply IH; [|exact Hx].
  destruct (find_dot (drop (S i0) name) (S i0)) as [j|] eqn:E; [apply c04_find_dot_ge in E; lia|lia].
Qed.

Hypothesis HCN : cn_ok o.
Hypothesis HNB : o_msgs o = None.

(* visitSoyFile on the file, from the initial state *)
Theorem gen_file_walk fname ns nsae F p :
  (forall t, In t p -> ct_ns_ae t = nsae /\ (S (S (bdepth (ct_body t))) < F)%nat /\ bwf [] (ct_body t) = true) ->
  (0 < F)%nat ->
  exists bf' n', gres o (visit_file o F fname (c04_file_nodes ns nsae p)) jinit_state
                      (c04_file_header fname ++ c04_ns_lines ns ++ c04_table_chunks (c04_jprog_chain p 0)) 0 bf' nsae [[]] n'.
Proof.
  intros Hall HF. destruct F as [|F1]; [lia|].
  assert (H0 : shape jinit_state 0 [] 0 [[]] 0) by (repeat split).
  (* the namespace node *)
  assert (Gns : forall st, shape st 0 [] 0 [[]] 0 ->
            gres o (jwalk o (S F1) (NNamespace 0 ns nsae)) st ([] ++ c04_ns_lines ns) 0 [] nsae [[]] 0).
  { intros st Hs. eapply gres_walk; [reflexivity|exact Hs|]. intros st1 H1. cbn [jwalk_node].
    eapply gres_bind; [eapply gres_mod_auto; exact H1|]. intros x Hx.
    apply gres_ns_decls; [lia|exact Hx]. }
  destruct (gres_sln o [CText t_hdr1; CFile (line_comment_safe fname); CText t_dot] jinit_state _ _ _ _ _ H0) as (sa & Ea & Oa & Ha & Ca).
  destruct (gres_sln o [CText t_hdr2] sa _ _ _ _ _ Ha) as (sb & Eb & Ob & Hb & Cb).
  destruct (gres_sln o [] sb _ _ _ _ _ Hb) as (sc & Ec & Oc & Hc & Cc).
  destruct (Gns sc Hc) as (sd & Ed & Od & Hd & Cd).
  destruct (gen_templates o HCN HNB nsae (S F1) p 0 sd [] Hall Hd) as (bf' & n' & se & Ee & Oe & He & Ce).
  exists bf', n', se. unfold visit_file, c04_file_nodes. cbn [jwalk_list].
  rewrite (jbind_ok _ _ _ _ _ Ea), (jbind_ok _ _ _ _ _ Eb), (jbind_ok _ _ _ _ _ Ec), (jbind_ok _ _ _ _ _ Ed).
  split; [exact Ee|]. split; [|split; [exact He|intro HI; rewrite (Ce HI), (Cd HI), (Cc HI), (Cb HI), (Ca HI); reflexivity]].
  rewrite Oe, Od, Oc, Ob, Oa. rewrite c04_file_chunks_table. unfold c04_file_header.
  rewrite !rev_app_distr, <- !app_assoc. reflexivity.
Qed.

(* soyjs.Write: no import lines (the formatter writes none), then the walked text *)
Theorem gen_file_chunks fname ns nsae F p : c04_imp_free o ->
  (forall t, In t p -> ct_ns_ae t = nsae /\ (S (S (bdepth (ct_body t))) < F)%nat /\ bwf [] (ct_body t) = true) ->
  (0 < F)%nat ->
  gen_file o F fname (c04_file_nodes ns nsae p)
  = Ok (c04_file_header fname ++ c04_ns_lines ns ++ c04_table_chunks (c04_jprog_chain p 0)).
Proof.
  intros HF Hall H0. destruct (gen_file_walk fname ns nsae F p Hall H0) as (bf' & n' & st & E & O & _ & C).
  unfold gen_file. rewrite E. rewrite (C HF). cbn [j_called jinit_state]. rewrite O. cbn [j_out jinit_state app].
  rewrite app_nil_r, rev_involutive. reflexivity.
Qed.
End FileChunks.

(* ---- the whole-file statement: generator, JavaScript function table and Go renderer together ---- *)
(* FULL STATEMENT (DESIGN.md section 4):  forall b t data ij, check b = Ok -> in_core b data ->
     js_run (gen b) t data ij = render_impl b t data ij.
   PROVED here (partial): for a registry whose templates are those of ONE file of the subset (namespace, templates
   with bodies of the statement subset of Model/MiniJS.v: raw text, print, let (both forms), if, switch, foreach, for over
   range, css, call (all forms, recursion allowed), msg without a bundle: without plural, or one plural with numeric cases),
     (Gen) soyjs.Write's model answers Ok with the header lines, the namespace declarations and the printed function
           table jp = c04_jprog_chain p 0 -- and nothing else (no import line);
     (Go)  Renderer.Execute of any template of the file on data of the subset succeeds and writes text;
     (JS)  calling that template's function of jp in MiniJS with an object that holds the same data returns text.
   "Inside the subset" for the data and the run is the hypothesis c04_tout .. = Some text (the subset semantics gives
   an answer: every value printed is a printable scalar, every call finds its template in the file, ...).
   OUTSIDE: (a) the ES6 formatter (c04_imp_free / cn_ok fail: calls are renamed and imported); (b) the step from the
   emitted text to a function table inside a real engine (parsing the printed functions back, namespace objects,
   soyutils.js): node correspondence of the harness; (c) nested plurals and messages rendered from a bundle.
   Several files in one registry (calls across files): gen_registry_correct_partial below. *)
Theorem gen_file_correct_partial cf o fname ns nsae p F :
  c_oblig cf = [] -> (forall x, c_ij cf = Some x -> core_value x = true) -> r_templates (c_reg cf) = c04_templates p ->
  cn_ok o -> c04_imp_free o -> o_msgs o = None ->
  (forall t, In t p -> ct_ns_ae t = nsae /\ (S (S (bdepth (ct_body t))) < F)%nat /\ bwf [] (ct_body t) = true) ->
  (0 < F)%nat ->
  let jp := c04_jprog_chain p 0 in
  gen_file o F fname (c04_file_nodes ns nsae p) = Ok (c04_file_header fname ++ c04_ns_lines ns ++ c04_table_chunks o jp)
  /\ forall k name t data_id data first_id text fuel,
       c04_find p name = Some t ->
       forallb (fun kv => core_value (snd kv)) data = true ->
       c04_tout (c_ij cf) go_print_text p (S k) name (fun q => assoc_s q data) = Some text ->
       (S k * c04_D p <= fuel)%nat ->
       (let r := render cf fuel name data_id data None None first_id in
        rr_outcome r = Ok tt /\ concat_b (rr_writes r) = text)
       /\ (forall jd ijv, datarel (fun q => assoc_s q data) jd -> (forall v, c_ij cf = Some v -> ijv = to_js v) ->
             c04_jcall jp (S k) name jd ijv = Ok text)
       /\ (forallb (fun kv => is_ident (fst kv)) data = true -> forall ijv, (forall v, c_ij cf = Some v -> ijv = to_js v) ->
             c04_jcall jp (S k) name (to_js (VMap data_id data)) ijv = Ok text).
Proof.
  intros Hob Hij Hreg HCN HIF HNB Hall HF jp. split; [exact (gen_file_chunks o HCN HNB fname ns nsae F p HIF Hall HF)|].
  intros k name t data_id data first_id text fuel Ef Hcore E Hfu.
  pose proof (js_call_correct_tbl cf p Hij jp (c04_jprog_chain_ok p 0) (S k)) as HJ.
  split; [exact (go_render_correct cf p Hob Hij Hreg k name t data_id data first_id text fuel Ef Hcore E Hfu)|]. split.
  - intros jd ijv DR Hi. exact (HJ name _ text jd ijv E DR Hi).
  - intros Hk ijv Hi. apply (HJ name _ text _ ijv E); [|exact Hi]. apply datarel_map; [exact Hcore|exact Hk].
Qed.

(* ---- a registry of several files ---- *)
(* a file: name of the source file, namespace, the namespace's autoescape mode, its templates *)
Record c04_file := { cfl_name : bstr; cfl_ns : bstr; cfl_ae : N; cfl_tmpls : list ctmpl }.
Definition c04_all_tmpls (fs : list c04_file) : list ctmpl := flat_map cfl_tmpls fs.
(* the function table of an engine that has loaded the generated file of every file of the registry: each file's table
   starts from counter 0 (soyjs.Write makes a new scope per file) *)
Definition c04_all_jprog (fs : list c04_file) : list (bstr * (bool * jblk)) := flat_map (fun f => c04_jprog_chain (cfl_tmpls f) 0) fs.

Lemma c04_find_app p1 p2 name : c04_find (p1 ++ p2) name = match c04_find p1 name with Some t => Some t | None => c04_find p2 name end.
Proof. induction p1 as [|x r IH]; [reflexivity|]. cbn [app c04_find]. destruct (bstr_eqb (ct_name x) name); [reflexivity|exact IH]. Qed.
Lemma c04_chain_none p name : c04_find p name = None -> forall n, assoc_s name (c04_jprog_chain p n) = None.
Proof.
  induction p as [|x r IH]; intros Ef n; [reflexivity|]. cbn [c04_find] in Ef.
  unfold c04_jprog_chain. cbn [c04_chain map fst snd]. unfold assoc_s; fold (@assoc_s (bool * jblk)).
  rewrite (bstr_eqb_sym name (ct_name x)). destruct (bstr_eqb (ct_name x) name); [discriminate|]. exact (IH Ef _).
Qed.
Lemma c04_all_jprog_ok fs : c04_table_ok (c04_all_tmpls fs) (c04_all_jprog fs).
Proof.
  induction fs as [|f r IH]; intros name t Ef; [discriminate|].
  unfold c04_all_tmpls, c04_all_jprog in *. cbn [flat_map] in *. rewrite c04_find_app in Ef. rewrite assoc_s_app.
  destruct (c04_find (cfl_tmpls f) name) as [t0|] eqn:E0.
  - inversion Ef; subst t0. destruct (c04_jprog_chain_ok (cfl_tmpls f) 0 name t E0) as (n & ->). exists n. reflexivity.
  - rewrite (c04_chain_none _ _ E0). exact (IH name t Ef).
Qed.

(* the registry theorem: every file's generated text is its printed function table, and in the union of these tables the
   function of every template returns what Renderer.Execute writes (calls across files included) *)
Theorem gen_registry_correct_partial cf o fs F :
  c_oblig cf = [] -> (forall x, c_ij cf = Some x -> core_value x = true) -> r_templates (c_reg cf) = c04_templates (c04_all_tmpls fs) ->
  cn_ok o -> c04_imp_free o -> o_msgs o = None ->
  (forall f, In f fs -> forall t, In t (cfl_tmpls f) -> ct_ns_ae t = cfl_ae f /\ (S (S (bdepth (ct_body t))) < F)%nat /\ bwf [] (ct_body t) = true) ->
  (0 < F)%nat ->
  let p := c04_all_tmpls fs in
  let jp := c04_all_jprog fs in
  (forall f, In f fs ->
     gen_file o F (cfl_name f) (c04_file_nodes (cfl_ns f) (cfl_ae f) (cfl_tmpls f))
     = Ok (c04_file_header (cfl_name f) ++ c04_ns_lines (cfl_ns f) ++ c04_table_chunks o (c04_jprog_chain (cfl_tmpls f) 0)))
  /\ forall k name t data_id data first_id text fuel,
       c04_find p name = Some t ->
       forallb (fun kv => core_value (snd kv)) data = true ->
       c04_tout (c_ij cf) go_print_text p (S k) name (fun q => assoc_s q data) = Some text ->
       (S k * c04_D p <= fuel)%nat ->
       (let r := render cf fuel name data_id data None None first_id in
        rr_outcome r = Ok tt /\ concat_b (rr_writes r) = text)
       /\ (forall jd ijv, datarel (fun q => assoc_s q data) jd -> (forall v, c_ij cf = Some v -> ijv = to_js v) ->
             c04_jcall jp (S k) name jd ijv = Ok text)
       /\ (forallb (fun kv => is_ident (fst kv)) data = true -> forall ijv, (forall v, c_ij cf = Some v -> ijv = to_js v) ->
             c04_jcall jp (S k) name (to_js (VMap data_id data)) ijv = Ok text).
Proof.
  intros Hob Hij Hreg HCN HIF HNB Hall HF p jp. split.
  - intros f Hf. exact (gen_file_chunks o HCN HNB (cfl_name f) (cfl_ns f) (cfl_ae f) F (cfl_tmpls f) HIF (Hall f Hf) HF).
  - intros k name t data_id data first_id text fuel Ef Hcore E Hfu.
    pose proof (js_call_correct_tbl cf p Hij jp (c04_all_jprog_ok fs) (S k)) as HJ.
    split; [exact (go_render_correct cf p Hob Hij Hreg k name t data_id data first_id text fuel Ef Hcore E Hfu)|]. split.
    + intros jd ijv DR Hi. exact (HJ name _ text jd ijv E DR Hi).
    + intros Hk ijv Hi. apply (HJ name _ text _ ijv E); [|exact Hi]. apply datarel_map; [exact Hcore|exact Hk].
Qed.
