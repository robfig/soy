(* The expression parser model does not look at item positions: running it on the items with
   every position set to 0 gives the result of the original run with every position set to 0
   (tree by [strip_pos], error item and parser state by [strip_tok]).  Success, error class, crash
   and fuel exhaustion are the same.  One commutation lemma per procedure of Model/ExprParser.v,
   closed by induction on the fuel.

   Used to lift the token-level round trip (tokens_of carries node positions, structural items
   position 0) to the items the scanner really sends (every item carries the offset of its end). *)
From Soy Require Import Model.Bytes Model.Num Model.Values Model.Ast Model.Token Model.NumLit Model.Quote Model.ExprParser
  Model.AstPrint Generated.Tables Spec.ExprSyntax Proofs.ExprParserRules.
Require Import Lia ZifyBool.
Open Scope N_scope.

Definition zs (st : pst) : pst :=
  {| p_rest := map strip_tok (p_rest st); p_tok0 := strip_tok (p_tok0 st); p_tok1 := strip_tok (p_tok1 st);
     p_peek := p_peek st; p_recv := p_recv st |}.

Definition zr {A} (g : A -> A) (r : presult A) : presult A :=
  match r with
  | POk a st => POk (g a) (zs st)
  | PErr t c st => PErr (strip_tok t) c (zs st)
  | PCrash m => PCrash m
  | PFuel => PFuel
  end.

(* an expression node: its position is one that strip_pos erases *)
Definition isx (n : node) : Prop := pos_of (strip_pos n) = 0.
Definition anyok {A} (_ : A) : Prop := True.

(* [r'] is the run on erased items of the run [r]; and what [r] returns satisfies [ok] *)
Definition sim {A} (g : A -> A) (ok : A -> Prop) (r r' : presult A) : Prop :=
  zr g r = r' /\ match r with POk a _ => ok a | _ => True end.

Lemma sim_bind {A B} (h : A -> A) (okh : A -> Prop) (g : B -> B) (okg : B -> Prop) x x' k k' :
  sim h okh x x' -> (forall a st, okh a -> sim g okg (k a st) (k' (h a) (zs st))) ->
  sim g okg (pbind x k) (pbind x' k').
Proof.
  intros [Hx Hok] Hk. subst x'. destruct x as [a st|t c st|m|]; cbn [pbind zr]; try (split; [reflexivity|exact I]).
  apply Hk. exact Hok.
Qed.

Lemma sim_ok {A} (g : A -> A) (ok : A -> Prop) a st : ok a -> sim g ok (POk a st) (POk (g a) (zs st)).
Proof. intros H. split; [reflexivity|exact H]. Qed.
Lemma sim_err {A} (g : A -> A) (ok : A -> Prop) t c st : sim g ok (PErr t c st) (PErr (strip_tok t) c (zs st)).
Proof. split; [reflexivity|exact I]. Qed.
Lemma sim_crash {A} (g : A -> A) (ok : A -> Prop) m : sim g ok (PCrash m) (PCrash m).
Proof. split; [reflexivity|exact I]. Qed.
Lemma sim_fuel {A} (g : A -> A) (ok : A -> Prop) : sim g ok (@PFuel A) PFuel.
Proof. split; [reflexivity|exact I]. Qed.

Lemma strip_zero : strip_tok zero_tok = zero_tok. Proof. reflexivity. Qed.
Lemma typ_strip t : t_typ (strip_tok t) = t_typ t. Proof. reflexivity. Qed.
Lemma val_strip t : t_val (strip_tok t) = t_val t. Proof. reflexivity. Qed.
Lemma pos_strip t : t_pos (strip_tok t) = 0. Proof. reflexivity. Qed.

Lemma p_next_zs st : p_next (zs st) = (strip_tok (fst (p_next st)), zs (snd (p_next st))).
Proof.
  destruct st as [rest t0 t1 pk rc]. unfold p_next, zs, recv. cbn [p_peek p_rest p_tok0 p_tok1 p_recv].
  destruct pk as [|[|pk]]; [destruct rest as [|t r]|..]; reflexivity.
Qed.

Lemma p_peek_zs st : p_peek_tok (zs st) = (strip_tok (fst (p_peek_tok st)), zs (snd (p_peek_tok st))).
Proof.
  destruct st as [rest t0 t1 pk rc]. unfold p_peek_tok, zs, recv. cbn [p_peek p_rest p_tok0 p_tok1 p_recv].
  destruct pk as [|[|pk]]; [destruct rest as [|t r]|..]; reflexivity.
Qed.

Lemma p_backup_zs st : p_backup (zs st) = zs (p_backup st). Proof. reflexivity. Qed.

Lemma err_tok_zs st : err_tok (zs st) = strip_tok (err_tok st).
Proof. destruct st as [rest t0 t1 pk rc]. unfold err_tok, zs. cbn. destruct pk as [|[|pk]]; reflexivity. Qed.

Lemma errorf_sim {A} (g : A -> A) ok c st : sim g ok (p_errorf c st) (p_errorf c (zs st)).
Proof. unfold p_errorf. rewrite err_tok_zs. apply sim_err. Qed.

Lemma unexpected_sim {A} (g : A -> A) ok t st : sim g ok (p_unexpected t st) (p_unexpected (strip_tok t) (zs st)).
Proof. unfold p_unexpected. rewrite typ_strip. destruct (t_typ t =? pk_itemError); apply sim_err. Qed.

Lemma expect_sim typ st : sim strip_tok anyok (p_expect typ st) (p_expect typ (zs st)).
Proof.
  unfold p_expect. rewrite p_next_zs. destruct (p_next st) as [t st1]. cbn [fst snd]. rewrite typ_strip.
  destruct (t_typ t =? typ); [apply sim_ok; exact I | apply unexpected_sim].
Qed.

Lemma new_binary_op_strip t a c :
  new_binary_op (strip_tok t) (strip_pos a) (strip_pos c) = option_map strip_pos (new_binary_op t a c).
Proof.
  unfold new_binary_op. rewrite typ_strip. destruct (assoc (t_typ t) binop_node_table) as [[i x]|]; [|reflexivity].
  destruct (binop_of_index i); reflexivity.
Qed.

Lemma new_binary_op_isx t a c n : new_binary_op t a c = Some n -> isx n.
Proof.
  unfold new_binary_op. destruct (assoc (t_typ t) binop_node_table) as [[i x]|]; [|discriminate].
  destruct (binop_of_index i); [|discriminate]. intros H. injection H as <-. reflexivity.
Qed.

Lemma new_unary_op_strip t a :
  new_unary_op (strip_tok t) (strip_pos a) = option_map strip_pos (new_unary_op t a).
Proof.
  unfold new_unary_op. rewrite typ_strip. destruct (assoc (t_typ t) unop_node_table) as [[|[q|q|]]|]; reflexivity.
Qed.

Lemma new_unary_op_isx t a n : new_unary_op t a = Some n -> isx n.
Proof.
  unfold new_unary_op. destruct (assoc (t_typ t) unop_node_table) as [[|[q|q|]]|]; try discriminate;
    intros H; injection H as <-; reflexivity.
Qed.

Definition strip_kv (kv : bstr * node) : bstr * node := (fst kv, strip_pos (snd kv)).

Lemma items_set_strip items k v :
  items_set (map strip_kv items) k (strip_pos v) = map strip_kv (items_set items k v).
Proof.
  induction items as [|[k' v'] r IH]; [reflexivity|]. cbn [map items_set strip_kv fst snd].
  destruct (bstr_eqb k k'); [reflexivity|]. cbn [map strip_kv fst snd]. rewrite <- IH. reflexivity.
Qed.

Lemma expr_loop_0 w p n st : expr_loop w 0 p n st = PFuel. Proof. reflexivity. Qed.
Lemma data_ref_loop_0 w p key acc st : data_ref_loop w 0 p key acc st = PFuel. Proof. reflexivity. Qed.
Lemma list_loop_0 w p items st : list_loop w 0 p items st = PFuel. Proof. reflexivity. Qed.
Lemma map_loop_0 w p items key st : map_loop w 0 p items key st = PFuel. Proof. reflexivity. Qed.
Lemma global_loop_0 p name nx st : global_loop 0 p name nx st = PFuel. Proof. reflexivity. Qed.
Lemma func_loop_0 w p name args st : func_loop w 0 p name args st = PFuel. Proof. reflexivity. Qed.
Lemma directive_args_loop_0 w args st : directive_args_loop w 0 args st = PFuel. Proof. reflexivity. Qed.
Lemma print_loop_0 w p e dirs st : print_loop w 0 p e dirs st = PFuel. Proof. reflexivity. Qed.
Lemma parse_expr_0 p st : parse_expr 0 p st = PFuel. Proof. reflexivity. Qed.

Section Body.
Variable w : N -> pst -> presult node.
Hypothesis Hw : forall p st, sim strip_pos isx (w p st) (w p (zs st)).

Ltac nxt st t st1 := rewrite p_next_zs; destruct (p_next st) as [t st1]; cbn [fst snd]; rewrite ?typ_strip, ?val_strip, ?pos_strip.

Lemma ternary_sim c st : isx c -> sim strip_pos isx (parse_ternary w c st) (parse_ternary w (strip_pos c) (zs st)).
Proof.
  intros Hc. unfold parse_ternary.
  eapply sim_bind; [apply Hw|]. intros n1 st1 _.
  eapply sim_bind; [apply expect_sim|]. intros _t st2 _.
  eapply sim_bind; [apply Hw|]. intros n2 st3 _.
  unfold isx in Hc. rewrite Hc. apply (sim_ok strip_pos isx (NTern (pos_of c) c n1 n2)). reflexivity.
Qed.

Lemma expr_loop_sim lf : forall p n st, isx n ->
  sim strip_pos isx (expr_loop w lf p n st) (expr_loop w lf p (strip_pos n) (zs st)).
Proof.
  induction lf as [|lf IH]; intros p n st Hn; [rewrite !expr_loop_0; apply sim_fuel|].
  rewrite !expr_loop_S. nxt st t st1. cbv zeta.
  destruct (negb (is_binary_op (t_typ t)) || (prec_of (t_typ t) <? p)).
  - destruct ((p =? 0) && (t_typ t =? pk_itemTernIf)); [apply ternary_sim; exact Hn|].
    rewrite p_backup_zs. apply sim_ok. exact Hn.
  - eapply sim_bind; [apply Hw|]. intros n2 st2 _. rewrite new_binary_op_strip.
    destruct (new_binary_op t n n2) as [bn|] eqn:E; cbn [option_map].
    + apply IH. eapply new_binary_op_isx; exact E.
    + apply errorf_sim.
Qed.

Lemma data_ref_loop_sim lf : forall p key acc st,
  sim strip_pos isx (data_ref_loop w lf p key acc st) (data_ref_loop w lf 0 key (map strip_pos acc) (zs st)).
Proof.
  induction lf as [|lf IH]; intros p key acc st; [rewrite !data_ref_loop_0; apply sim_fuel|].
  rewrite !data_ref_loop_S. nxt st t st1. cbv zeta.
  destruct ((t_typ t =? pk_itemQuestionDotIdent) || (t_typ t =? pk_itemDotIdent)).
  { destruct (slice_from _ (t_val t)) as [k|]; [|apply sim_crash].
    specialize (IH p key (acc ++ [NAccKey (t_pos t) (t_typ t =? pk_itemQuestionDotIdent) k]) st1).
    rewrite map_app in IH. exact IH. }
  destruct ((t_typ t =? pk_itemQuestionDotIndex) || (t_typ t =? pk_itemDotIndex)).
  { destruct (slice_from _ (t_val t)) as [ds|]; [|apply sim_crash].
    destruct (parse_int 10 ds) as [i|]; [|apply errorf_sim].
    specialize (IH p key (acc ++ [NAccIndex (t_pos t) (t_typ t =? pk_itemQuestionDotIndex) i]) st1).
    rewrite map_app in IH. exact IH. }
  destruct ((t_typ t =? pk_itemQuestionKey) || (t_typ t =? pk_itemLeftBracket)).
  { eapply sim_bind; [apply Hw|]. intros e st2 _.
    eapply sim_bind; [apply expect_sim|]. intros _t st3 _.
    specialize (IH p key (acc ++ [NAccExpr (t_pos t) (t_typ t =? pk_itemQuestionKey) e]) st3).
    rewrite map_app in IH. exact IH. }
  rewrite p_backup_zs. apply (sim_ok strip_pos isx (NDataRef p key acc)). reflexivity.
Qed.

Lemma parse_data_ref_sim lf t st :
  sim strip_pos isx (parse_data_ref w lf t st) (parse_data_ref w lf (strip_tok t) (zs st)).
Proof.
  unfold parse_data_ref. rewrite val_strip, pos_strip. destruct (slice_from 1 (t_val t)); [|apply sim_crash].
  apply (data_ref_loop_sim lf (t_pos t) b [] st).
Qed.

Lemma list_loop_sim lf : forall p items st,
  sim strip_pos isx (list_loop w lf p items st) (list_loop w lf 0 (map strip_pos items) (zs st)).
Proof.
  induction lf as [|lf IH]; intros p items st; [rewrite !list_loop_0; apply sim_fuel|].
  rewrite !list_loop_S. eapply sim_bind; [apply Hw|]. intros e st1 _. cbv zeta. nxt st1 nx st2.
  replace (map strip_pos items ++ [strip_pos e]) with (map strip_pos (items ++ [e])) by (rewrite map_app; reflexivity).
  destruct (t_typ nx =? pk_itemRightBracket); [apply (sim_ok strip_pos isx (NListLit p (items ++ [e]))); reflexivity|].
  destruct (negb (t_typ nx =? pk_itemComma)); [apply unexpected_sim|]. apply IH.
Qed.

Lemma map_loop_sim lf : forall p items key st,
  sim strip_pos isx (map_loop w lf p items key st) (map_loop w lf 0 (map strip_kv items) key (zs st)).
Proof.
  induction lf as [|lf IH]; intros p items key st; [rewrite !map_loop_0; apply sim_fuel|].
  rewrite !map_loop_S. eapply sim_bind; [apply Hw|]. intros e st1 _. cbv zeta. nxt st1 nx st2.
  rewrite items_set_strip.
  destruct (t_typ nx =? pk_itemRightBracket); [apply (sim_ok strip_pos isx (NMapLit p (items_set items key e))); reflexivity|].
  destruct (negb (t_typ nx =? pk_itemComma)); [apply unexpected_sim|].
  eapply sim_bind; [apply expect_sim|]. intros kt st3 _. rewrite val_strip.
  destruct (unquote_string (t_val kt)) as [key'|]; [|apply errorf_sim].
  eapply sim_bind; [apply expect_sim|]. intros _t st4 _. apply IH.
Qed.

Lemma parse_map_literal_sim lf p first st :
  sim strip_pos isx (parse_map_literal w lf p first st) (parse_map_literal w lf 0 (strip_pos first) (zs st)).
Proof.
  unfold parse_map_literal. destruct first; cbn [strip_pos]; try apply errorf_sim.
  apply (map_loop_sim lf p [] value st).
Qed.

Lemma parse_list_or_map_sim lf t st :
  sim strip_pos isx (parse_list_or_map w lf t st) (parse_list_or_map w lf (strip_tok t) (zs st)).
Proof.
  unfold parse_list_or_map. nxt st nx st1.
  destruct (t_typ nx =? pk_itemColon).
  { eapply sim_bind; [apply expect_sim|]. intros _t st2 _. apply (sim_ok strip_pos isx (NMapLit (t_pos t) [])). reflexivity. }
  destruct (t_typ nx =? pk_itemRightBracket); [apply (sim_ok strip_pos isx (NListLit (t_pos t) [])); reflexivity|].
  rewrite p_backup_zs. eapply sim_bind; [apply Hw|]. intros first st2 _. nxt st2 d st3.
  destruct (t_typ d =? pk_itemColon); [apply parse_map_literal_sim|].
  destruct (t_typ d =? pk_itemComma); [apply (list_loop_sim lf (t_pos t) [first] st3)|].
  destruct (t_typ d =? pk_itemRightBracket); [apply (sim_ok strip_pos isx (NListLit (t_pos t) [first])); reflexivity|].
  apply unexpected_sim.
Qed.

Lemma global_loop_sim lf : forall p name nx st,
  sim strip_pos isx (global_loop lf p name nx st) (global_loop lf 0 name (strip_tok nx) (zs st)).
Proof.
  induction lf as [|lf IH]; intros p name nx st; [rewrite !global_loop_0; apply sim_fuel|].
  rewrite !global_loop_S. rewrite typ_strip, val_strip. destruct (t_typ nx =? pk_itemDotIdent).
  - nxt st nx' st1. apply IH.
  - rewrite p_backup_zs. apply (sim_ok strip_pos isx (NGlobal p name VUndef)). reflexivity.
Qed.

Lemma func_loop_sim lf : forall p name args st,
  sim strip_pos isx (func_loop w lf p name args st) (func_loop w lf 0 name (map strip_pos args) (zs st)).
Proof.
  induction lf as [|lf IH]; intros p name args st; [rewrite !func_loop_0; apply sim_fuel|].
  rewrite !func_loop_S. eapply sim_bind; [apply Hw|]. intros e st1 _. cbv zeta. nxt st1 nx st2.
  replace (map strip_pos args ++ [strip_pos e]) with (map strip_pos (args ++ [e])) by (rewrite map_app; reflexivity).
  destruct (t_typ nx =? pk_itemComma); [apply IH|].
  destruct (t_typ nx =? pk_itemRightParen); [apply (sim_ok strip_pos isx (NFunc p name (args ++ [e]))); reflexivity|].
  apply unexpected_sim.
Qed.

Lemma new_function_node_sim lf t st :
  sim strip_pos isx (new_function_node w lf t st) (new_function_node w lf (strip_tok t) (zs st)).
Proof.
  unfold new_function_node. rewrite p_peek_zs. destruct (p_peek_tok st) as [pk st1]. cbn [fst snd].
  rewrite ?typ_strip, ?val_strip, ?pos_strip.
  destruct (t_typ pk =? pk_itemRightParen).
  - nxt st1 x st2. apply (sim_ok strip_pos isx (NFunc (t_pos t) (t_val t) [])). reflexivity.
  - apply (func_loop_sim lf (t_pos t) (t_val t) [] st1).
Qed.

Lemma new_value_node_sim lf t st :
  sim strip_pos isx (new_value_node w lf t st) (new_value_node w lf (strip_tok t) (zs st)).
Proof.
  unfold new_value_node. cbv zeta. rewrite ?typ_strip, ?val_strip, ?pos_strip.
  destruct (t_typ t =? pk_itemNull); [apply (sim_ok strip_pos isx (NNull (t_pos t))); reflexivity|].
  destruct (t_typ t =? pk_itemBool); [apply (sim_ok strip_pos isx (NBool (t_pos t) _)); reflexivity|].
  destruct (t_typ t =? pk_itemInteger).
  { destruct (if is_prefix s_0x (t_val t) then parse_int 16 (drop 2 (t_val t)) else parse_int 10 (t_val t)) as [z|];
      [apply (sim_ok strip_pos isx (NInt (t_pos t) z)); reflexivity | apply errorf_sim]. }
  destruct (t_typ t =? pk_itemFloat).
  { destruct (parse_float (t_val t)) as [f|]; [apply (sim_ok strip_pos isx (NFloat (t_pos t) f)); reflexivity|].
    destruct (parse_float_round (t_val t)) as [f| |];
      [apply (sim_ok strip_pos isx (NFloat (t_pos t) f)); reflexivity | apply errorf_sim | apply errorf_sim]. }
  destruct (t_typ t =? pk_itemString).
  { destruct (unquote_string (t_val t)) as [s|]; [apply (sim_ok strip_pos isx (NString (t_pos t) (t_val t) s)); reflexivity | apply errorf_sim]. }
  destruct (t_typ t =? pk_itemLeftBracket); [apply parse_list_or_map_sim|].
  destruct (t_typ t =? pk_itemDollarIdent); [apply parse_data_ref_sim|].
  destruct (t_typ t =? pk_itemIdent); [|apply errorf_sim].
  nxt st nx st1. destruct (negb (t_typ nx =? pk_itemLeftParen)).
  - apply global_loop_sim.
  - apply new_function_node_sim.
Qed.

Lemma parse_first_term_sim lf st :
  sim strip_pos isx (parse_first_term w lf st) (parse_first_term w lf (zs st)).
Proof.
  unfold parse_first_term. nxt st t st1.
  destruct (is_unary_op (t_typ t)).
  { eapply sim_bind; [apply Hw|]. intros n st2 _. rewrite new_unary_op_strip.
    destruct (new_unary_op t n) as [u|] eqn:E; cbn [option_map]; [|apply errorf_sim].
    apply sim_ok. eapply new_unary_op_isx; exact E. }
  destruct (t_typ t =? pk_itemLeftParen).
  { eapply sim_bind; [apply Hw|]. intros n st2 Hn.
    eapply sim_bind; [apply expect_sim|]. intros _t st3 _. apply sim_ok. exact Hn. }
  destruct (is_value (t_typ t)); [apply new_value_node_sim | apply unexpected_sim].
Qed.

Lemma parse_expr_body_sim lf p st :
  sim strip_pos isx (parse_expr_body w lf p st) (parse_expr_body w lf p (zs st)).
Proof.
  unfold parse_expr_body. eapply sim_bind; [apply parse_first_term_sim|]. intros n st1 Hn. apply expr_loop_sim. exact Hn.
Qed.

Lemma directive_args_loop_sim lf : forall args st,
  sim (map strip_pos) anyok (directive_args_loop w lf args st) (directive_args_loop w lf (map strip_pos args) (zs st)).
Proof.
  induction lf as [|lf IH]; intros args st; [rewrite !directive_args_loop_0; apply sim_fuel|].
  rewrite !directive_args_loop_S. nxt st nx st1.
  destruct ((t_typ nx =? pk_itemColon) || (t_typ nx =? pk_itemComma)).
  - eapply sim_bind; [apply Hw|]. intros e st2 _.
    specialize (IH (args ++ [e]) st2). rewrite map_app in IH. exact IH.
  - rewrite p_backup_zs. apply sim_ok. exact I.
Qed.

Lemma print_loop_sim lf : forall p e dirs st,
  sim strip_pos anyok (print_loop w lf p e dirs st) (print_loop w lf 0 (strip_pos e) (map strip_pos dirs) (zs st)).
Proof.
  induction lf as [|lf IH]; intros p e dirs st; [rewrite !print_loop_0; apply sim_fuel|].
  rewrite !print_loop_S. nxt st t st1.
  destruct (t_typ t =? pk_itemRightDelim); [apply (sim_ok strip_pos anyok (NPrint p e dirs)); exact I|].
  destruct (t_typ t =? pk_itemPipe); [|apply unexpected_sim].
  eapply sim_bind; [apply expect_sim|]. intros id st2 _.
  eapply sim_bind; [apply (directive_args_loop_sim (S lf) [] st2)|]. intros args st3 _. rewrite val_strip.
  specialize (IH p e (dirs ++ [NDirective (t_pos t) (t_val id) args]) st3). rewrite map_app in IH. exact IH.
Qed.

Lemma parse_print_body_sim lf p st :
  sim strip_pos anyok (parse_print_body w lf p st) (parse_print_body w lf 0 (zs st)).
Proof.
  unfold parse_print_body. eapply sim_bind; [apply Hw|]. intros e st1 _. apply print_loop_sim.
Qed.

End Body.

Theorem parse_expr_sim : forall f p st, sim strip_pos isx (parse_expr f p st) (parse_expr f p (zs st)).
Proof.
  induction f as [|f IH]; intros p st; [rewrite !parse_expr_0; apply sim_fuel|].
  change (parse_expr (S f) p st) with (parse_expr_body (parse_expr f) f p st).
  change (parse_expr (S f) p (zs st)) with (parse_expr_body (parse_expr f) f p (zs st)).
  apply parse_expr_body_sim. exact IH.
Qed.

Theorem parse_print_sim f p st : sim strip_pos anyok (parse_print f p st) (parse_print f 0 (zs st)).
Proof. unfold parse_print. apply parse_print_body_sim. apply parse_expr_sim. Qed.

Lemma zs_init ts : zs (pst_init ts) = pst_init (map strip_tok ts). Proof. reflexivity. Qed.

(* parse.Expr on items whose positions are erased *)
Theorem parse_expr_top_strip f ts :
  zr strip_pos (parse_expr_top f ts) = parse_expr_top f (map strip_tok ts).
Proof. unfold parse_expr_top. rewrite <- zs_init. apply parse_expr_sim. Qed.

(* the form used downstream: a successful run on erased items is a successful run on the items, of a tree
   that is the same up to positions *)
Lemma zr_ok_inv {A} (g : A -> A) r a' st' : zr g r = POk a' st' -> exists a st, r = POk a st /\ g a = a' /\ zs st = st'.
Proof. destruct r as [a st|t c st|m|]; cbn [zr]; intros H; try discriminate. injection H as <- <-. eauto. Qed.

Lemma stream_zs st : stream (zs st) = map strip_tok (stream st).
Proof. destruct st as [rest t0 t1 pk rc]. unfold stream, zs. cbn. destruct pk as [|[|pk]]; reflexivity. Qed.
