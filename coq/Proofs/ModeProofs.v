(* C03 at the interpreter level: the autoescape mode of the tree walker.

   (i)   [walk_mode_preserved]: walking a node that contains no NTemplate leaves
         [mode] as it found it, on every outcome -- in particular a {call} puts
         the caller's mode back whatever the callee's namespace and template
         say and however the callee ends (guarded unary principle,
         Proofs/InterpGuard.v).
   (ii)  [walk_mon]: the walker instrumented with a monitor.  It carries the
         effective mode [mu] of the template whose body is being walked (on an
         NTemplate node: [template_mode] of the mode the template was entered
         with -- [entry_mode ns] from [render], [call_mode ns] from
         [call_enter] -- and the template's own attribute) and ABORTS with
         [Crash e_mode] when a print command is reached in a state whose mode is
         not [mu].  [walk_mon_is_walk]: on a well-formed registry the
         instrumented walker returns exactly what the walker returns, for
         every template, fuel and state, at any call depth: the monitor never
         changes a run (relational principle, Proofs/InterpRel.v).
         [print_at_mode]: a print command reached in a state of mode [mu]
         performs [print_writes mu].
   (iii) [print_writes_decision], [autoescaped_print_escaped]: what a print
         writes, in terms of the escaping decision; when the decision is to
         escape, exactly the Write calls of the escaper, whose concatenation is
         [html_escape] of the value after the directives. *)
From Soy Require Import Model.Bytes Model.Num Model.Values Model.Outcome Model.Ast
  Model.Escape Model.Directives Model.Print Generated.Tables Model.Interp
  Spec.Html Proofs.EscapeProofs Proofs.InterpLogic Proofs.InterpSub Proofs.InterpGuard Proofs.InterpRel.
Require Import Lia.
Open Scope N_scope.

Definition not_template (n : node) : bool :=
  match n with NTemplate _ _ _ _ _ => false | _ => true end.
Definition no_template_inside (n : node) : bool := deep not_template n.

(* what compilation gives: every registry entry is a template node whose body nests no template *)
Definition template_wf (t : template) : bool :=
  match t_node t with
  | NTemplate _ _ body _ _ => no_template_inside body
  | _ => false
  end.
Definition registry_wf (r : registry) : bool := forallb template_wf (r_templates r).

Lemma not_template_plural p l : not_template (NMsg p 0 [] [] l) = true.
Proof. reflexivity. Qed.

(* the primitives do not touch the mode *)

Lemma write_mode w st r st' : write w st = (r, st') -> mode st' = mode st.
Proof. intros H. apply write_inv in H. inversion H; subst; reflexivity. Qed.
Lemma m_set_mode k v st r st' : m_set k v st = (r, st') -> mode st' = mode st.
Proof.
  rewrite m_set_eq. destruct (ctx st) as [|f rest]; intros H; inversion H; subst; [reflexivity|].
  destruct (f_origin f); reflexivity.
Qed.
Lemma m_lookup_mode k st r st' : m_lookup k st = (r, st') -> mode st' = mode st.
Proof. rewrite m_lookup_eq. destruct (sc_lookup (ctx st) k); intros H; inversion H; subst; reflexivity. Qed.
Lemma fresh_list_mode l st r st' : fresh_list l st = (r, st') -> mode st' = mode st.
Proof. rewrite fresh_list_eq. destruct l; intros H; inversion H; subst; reflexivity. Qed.
Lemma fresh_list_or_nil_mode l st r st' : fresh_list_or_nil l st = (r, st') -> mode st' = mode st.
Proof. rewrite fresh_list_or_nil_eq. destruct l; intros H; inversion H; subst; reflexivity. Qed.

(* (i) the mode is preserved *)

Definition keeps_mode {A} (m : M A) : Prop := forall st r st', m st = (r, st') -> mode st' = mode st.

Lemma keeps_mode_bind {A B} (m : M A) (f : A -> M B) :
  keeps_mode m -> (forall x, keeps_mode (f x)) -> keeps_mode (mbind m f).
Proof.
  intros Hm Hf st r st2 Hb.
  destruct (mbind_inv _ _ _ _ _ Hb) as [(x & st1 & H1 & H2) | (e & H1 & ->)].
  - rewrite (Hf x _ _ _ H2). eapply Hm; eauto.
  - eapply Hm; eauto.
Qed.

Lemma keeps_mode_logic : walker_logic_g not_template (@keeps_mode) (fun _ => True) (fun _ _ => True).
Proof.
  constructor.
  - intros A m m' Heq Hm st r st' H. rewrite <- Heq in H. eapply Hm; eauto.
  - intros A x st r st' H. inversion H; reflexivity.
  - intros A e st r st' H. inversion H; reflexivity.
  - intros A o _ st r st' H. inversion H; reflexivity.
  - intros; apply keeps_mode_bind; assumption.
  - intros p st r st' H. inversion H; reflexivity.
  - intros p name body ae priv Hg. discriminate Hg.
  - intros w st r st' H. eapply write_mode; eauto.
  - intros k v st r st' H. eapply m_set_mode; eauto.
  - intros k st r st' H. eapply m_lookup_mode; eauto.
  - intros l st r st' H. eapply fresh_list_mode; eauto.
  - intros l st r st' H. eapply fresh_list_or_nil_mode; eauto.
  - intros m st r st' H. inversion H; reflexivity.
  - intros B f Hf st r st' H. change ((st <-- get ;;; f (mode st)) st) with (f (mode st) st) in H. eapply Hf; eauto.
  - intros B f Hf st r st' H. change ((st <-- get ;;; f (ctx st)) st) with (f (ctx st) st) in H. eapply Hf; eauto.
  - intros m Hm st r st' H. rewrite scoped_eq in H.
    destruct (m (pushed st)) as [r1 st2] eqn:Hrun. cbn [fst snd] in H.
    pose proof (Hm _ _ _ Hrun) as H1. destruct (classify r1); inversion H; subst; cbn in *; exact H1.
  - intros w e Hw st r st' H. rewrite eval_eq in H.
    destruct (w e st) as [r1 st2] eqn:Hrun. cbn [fst snd] in H.
    pose proof (Hw _ _ _ Hrun) as H1. destruct (classify r1); inversion H; subst; cbn in *; exact H1.
  - intros w body Hw st r st' H. rewrite render_block_eq in H.
    destruct (w body (buf_pushed st)) as [r1 st2] eqn:Hrun. cbn [fst snd] in H.
    pose proof (Hw _ _ _ Hrun) as H1. cbn in H1.
    destruct (classify r1); [|inversion H; subst; exact H1].
    cbn zeta in H. destruct (bufs st2); inversion H; subst; cbn; exact H1.
  - intros w callee cd _ st r st' H. rewrite call_enter_eq in H. cbn zeta in H. inversion H; reflexivity.
Qed.

Theorem walk_mode_preserved cf fuel n st r st' :
  no_template_inside n = true -> walk cf fuel n st = (r, st') -> mode st' = mode st.
Proof.
  intros Hn H.
  refine (walk_logic_g cf not_template (@keeps_mode) (fun _ => True) (fun _ _ => True) keeps_mode_logic _
            not_template_plural _ fuel n Hn st r st' H).
  - constructor; intros; exact Logic.I.
  - intros; exact Logic.I.
Qed.

(* the same for one unfolding over any [w] that keeps the mode below guarded nodes *)
Lemma walk_body_mode_preserved cf (w : node -> M value) n :
  (forall c, no_template_inside c = true -> keeps_mode (w c)) ->
  no_template_inside n = true -> keeps_mode (walk_body cf w n).
Proof.
  intros Hw Hn.
  refine (gphi_walk_body cf not_template (@keeps_mode) (fun _ => True) (fun _ _ => True) keeps_mode_logic _
            not_template_plural w Hw _ n Hn).
  - constructor; intros; exact Logic.I.
  - intros; exact Logic.I.
Qed.

(* (ii) the instrumented walker *)

Definition e_mode := Eval vm_compute in b "print under a foreign autoescape mode".

Lemma walk_body_template cf w p name body ae priv st :
  walk_body cf w (NTemplate p name body ae priv) st =
  let st2 := set_mode (set_cur st p) (template_mode (mode st) ae) in
  (match classify (fst (w body st2)) with inl _ => Ok VUndef | inr e => of_fault e end, snd (w body st2)).
Proof.
  unfold walk_body. cbn. unfold mbind. cbn. destruct (w body _) as [[] s]; reflexivity.
Qed.

Section Monitor.
Variable cf : cfg.

Fixpoint walk_mon (fuel : nat) (mu : N) (n : node) {struct fuel} : M value :=
  match fuel with
  | O => lift OutOfFuel
  | S f =>
      match n with
      | NTemplate _ _ _ ae _ =>
          (* entering a template: from here on its effective mode is the expected one *)
          fun st => walk_body cf (walk_mon f (template_mode (mode st) ae)) n st
      | NPrint _ _ _ =>
          fun st => if mode st =? mu then walk_body cf (walk_mon f mu) n st else (Crash e_mode, st)
      | _ => walk_body cf (walk_mon f mu) n
      end
  end.

(* related runs: started in a state of mode [mu], identical, and the mode is [mu] again afterwards *)
Definition same_at (mu : N) {A} (m1 m2 : M A) : Prop :=
  forall st, mode st = mu -> m1 st = m2 st /\ mode (snd (m2 st)) = mu.
Definition same_run (m1 m2 : M value) : Prop := forall st, m1 st = m2 st.

Lemma same_at_prim mu {A} (m : M A) : keeps_mode m -> same_at mu m m.
Proof. intros Hk st Hm. split; [reflexivity|]. destruct (m st) as [r st'] eqn:H. cbn. rewrite (Hk _ _ _ H). exact Hm. Qed.

Lemma same_at_logic mu : walker_logic_r not_template (@same_at mu) same_run (fun _ _ => True).
Proof.
  pose proof keeps_mode_logic as K.
  constructor.
  - intros A m1 m1' m2 m2' H1 H2 H st Hm. rewrite <- H1, <- H2. apply H. exact Hm.
  - intros A x. apply same_at_prim. apply (wg_ret _ _ _ _ K).
  - intros A e. apply same_at_prim. apply (wg_fail _ _ _ _ K).
  - intros A o _. apply same_at_prim. apply (wg_lift _ _ _ _ K). exact Logic.I.
  - intros A B m1 m2 f1 f2 Hm Hf st Hmu.
    destruct (Hm st Hmu) as [He Hmode]. unfold mbind. rewrite He.
    destruct (m2 st) as [r st1]. cbn [snd] in Hmode.
    destruct r; try (split; [reflexivity | exact Hmode]).
    apply Hf. exact Hmode.
  - intros p. apply same_at_prim. apply (wg_set_cur _ _ _ _ K).
  - intros p name body ae priv Hg. discriminate Hg.
  - intros w. apply same_at_prim. apply (wg_write _ _ _ _ K).
  - intros k v. apply same_at_prim. apply (wg_set _ _ _ _ K).
  - intros k. apply same_at_prim. apply (wg_lookup _ _ _ _ K).
  - intros l. apply same_at_prim. apply (wg_fresh_list _ _ _ _ K).
  - intros l. apply same_at_prim. apply (wg_fresh_list_or_nil _ _ _ _ K).
  - intros m. apply same_at_prim. apply (wg_fresh_map _ _ _ _ K).
  - intros B f1 f2 Hf st Hmu.
    change ((st <-- get ;;; f1 (mode st)) st) with (f1 (mode st) st).
    change ((st <-- get ;;; f2 (mode st)) st) with (f2 (mode st) st). apply Hf. exact Hmu.
  - intros B f1 f2 Hf st Hmu.
    change ((st <-- get ;;; f1 (ctx st)) st) with (f1 (ctx st) st).
    change ((st <-- get ;;; f2 (ctx st)) st) with (f2 (ctx st) st). apply Hf. exact Hmu.
  - intros m1 m2 Hm st Hmu. rewrite !scoped_eq.
    destruct (Hm (pushed st) Hmu) as [He Hmode]. rewrite He.
    destruct (m2 (pushed st)) as [r st2]. cbn [fst snd] in *.
    destruct (classify r); (split; [reflexivity | exact Hmode]).
  - intros w1 w2 e Hw st Hmu. rewrite !eval_eq.
    destruct (Hw st Hmu) as [He Hmode]. rewrite He.
    destruct (w2 e st) as [r st2]. cbn [fst snd] in *.
    destruct (classify r); (split; [reflexivity | exact Hmode]).
  - intros w1 w2 body Hw st Hmu. rewrite !render_block_eq.
    destruct (Hw (buf_pushed st) Hmu) as [He Hmode]. rewrite He.
    destruct (w2 body (buf_pushed st)) as [r st2]. cbn [fst snd] in *.
    destruct (classify r); [|split; [reflexivity | exact Hmode]].
    cbn zeta. destruct (bufs st2); (split; [reflexivity | exact Hmode]).
  - intros w1 w2 callee cd Hw st Hmu. rewrite !call_enter_eq. cbn zeta. rewrite (Hw (entered st callee cd)).
    split; [reflexivity | exact Hmu].
Qed.

Hypothesis WF : registry_wf (c_reg cf) = true.

Lemma registry_wf_in t : In t (r_templates (c_reg cf)) ->
  exists p name body ae priv, t_node t = NTemplate p name body ae priv /\ no_template_inside body = true.
Proof.
  intros Hin. unfold registry_wf in WF. rewrite forallb_forall in WF. specialize (WF t Hin).
  unfold template_wf in WF. destruct (t_node t); try discriminate. eauto 10.
Qed.

(* the monitored walker is the walker: below a guarded node started in the expected mode, and on
   every template of the registry from any state *)
Lemma walk_mon_eq fuel :
  (forall mu n, no_template_inside n = true -> same_at mu (walk_mon fuel mu n) (walk cf fuel n)) /\
  (forall mu t, In t (r_templates (c_reg cf)) -> same_run (walk_mon fuel mu (t_node t)) (walk cf fuel (t_node t))).
Proof.
  induction fuel as [|f [IH1 IH2]].
  - split.
    + intros mu n _ st Hmu. split; [reflexivity | exact Hmu].
    + intros mu t _ st. reflexivity.
  - assert (Hbody : forall mu n, no_template_inside n = true ->
                    same_at mu (walk_body cf (walk_mon f mu) n) (walk_body cf (walk cf f) n)).
    { intros mu n Hn.
      refine (rphi_walk_body cf not_template (@same_at mu) same_run (fun _ _ => True) (same_at_logic mu) _
                not_template_plural (walk_mon f mu) (walk cf f) (IH1 mu) (IH2 mu) n Hn).
      constructor; intros; exact Logic.I. }
    split.
    + intros mu n Hn st Hmu. rewrite walk_S.
      pose proof (deep_g _ _ Hn) as Hg.
      destruct n; try discriminate Hg; cbn [walk_mon]; try (apply Hbody; assumption).
      (* NPrint: the check passes *)
      rewrite Hmu, N.eqb_refl. apply Hbody; assumption.
    + intros mu t Hin st. rewrite walk_S.
      destruct (registry_wf_in t Hin) as (p & name & body & ae & priv & Ht & Hb). rewrite Ht.
      cbn [walk_mon]. rewrite !walk_body_template. cbn zeta.
      set (st2 := set_mode (set_cur st p) (template_mode (mode st) ae)).
      assert (Hm2 : mode st2 = template_mode (mode st) ae) by reflexivity.
      destruct (IH1 (template_mode (mode st) ae) body Hb st2 Hm2) as [He _].
      rewrite He. reflexivity.
Qed.

Theorem walk_mon_is_walk fuel mu t st :
  In t (r_templates (c_reg cf)) -> walk_mon fuel mu (t_node t) st = walk cf fuel (t_node t) st.
Proof. intros Hin. apply (proj2 (walk_mon_eq fuel)). exact Hin. Qed.

Theorem walk_mon_is_walk_below fuel mu n st :
  no_template_inside n = true -> mode st = mu -> walk_mon fuel mu n st = walk cf fuel n st.
Proof. intros Hn Hmu. apply (proj1 (walk_mon_eq fuel) mu n Hn st Hmu). Qed.
End Monitor.

(* a print reached in a state of mode mu performs print_writes mu *)

Definition print_at (cf : cfg) (w : node -> M value) (mu : N) (arg : node) (dirs : list node) : M value :=
  v <-- w arg ;;;
  match v with
  | VUndef => fail e_undefined
  | _ =>
      ds <-- print_dirs cf w dirs v ;;;
      s <-- lift (value_string v) ;;;
      ws <-- lift (print_writes mu ds s) ;;;
      _ <-- write_all ws ;;; ret VUndef
  end.

Lemma mbind_same_at {A B} mu (m : M A) (f1 f2 : A -> M B) st :
  keeps_mode m -> mode st = mu -> (forall x s, mode s = mu -> f1 x s = f2 x s) -> mbind m f1 st = mbind m f2 st.
Proof.
  intros Hk Hmu Hf. unfold mbind. destruct (m st) as [r st1] eqn:Hm.
  destruct r; try reflexivity. apply Hf. rewrite (Hk _ _ _ Hm). exact Hmu.
Qed.

Lemma keeps_mode_sites : pure_sites (fun _ _ => True).
Proof. constructor; intros; exact Logic.I. Qed.

Theorem print_at_mode cf (w : node -> M value) p arg dirs st :
  (forall c, no_template_inside c = true -> keeps_mode (w c)) ->
  no_template_inside (NPrint p arg dirs) = true ->
  walk_node cf w (NPrint p arg dirs) st = print_at cf w (mode st) arg dirs st.
Proof.
  intros Hw Hn. unfold no_template_inside in Hn. dsplit Hn.
  cbn [walk_node]. unfold print_at.
  apply (mbind_same_at (mode st)); [apply Hw; assumption | reflexivity|].
  intros v s1 Hs1. destruct v; try reflexivity;
    (apply (mbind_same_at (mode st));
     [ exact (bphi_print_dirs cf _ _ (guarded_body_logic _ _ _ _ keeps_mode_logic) (pure_sites_to_sub _ keeps_mode_sites) w w dirs
                (deep_loop _ _ _ _ Hw (deep_dir_subs _) Hn) _)
     | exact Hs1 |];
     intros ds s2 Hs2;
     apply (mbind_same_at (mode st)); [intros ? ? ? H; inversion H; reflexivity | exact Hs2 |];
     intros str s3 Hs3; change ((st0 <-- get ;;; ws <-- lift (print_writes (mode st0) ds str) ;;; _ <-- write_all ws ;;; ret VUndef) s3)
       with ((ws <-- lift (print_writes (mode s3) ds str) ;;; _ <-- write_all ws ;;; ret VUndef) s3);
     rewrite Hs3; reflexivity).
Qed.

(* (iii) what a print writes *)

Definition cancel_of (d : bstr * list darg) : bool :=
  match lookup_directive (fst d) with
  | Some (_, (cancel, _)) => cancel
  | None => false
  end.

Lemma apply_directives_esc ds : forall s esc s' e,
  apply_directives ds s esc = Ok (s', e) -> e = esc && forallb negb (map cancel_of ds).
Proof.
  induction ds as [|[name args] r IH]; intros s esc s' e H; cbn [apply_directives] in H.
  - inversion H; subst. cbn. rewrite andb_true_r. reflexivity.
  - cbn [map forallb]. unfold cancel_of at 1. cbn [fst].
    destruct (lookup_directive name) as [[arglens [cancel [nilapply fn]]]|]; [|discriminate].
    destruct (negb (check_num_args arglens (length args))); [discriminate|].
    destruct nilapply; [discriminate|].
    destruct (apply_fn fn args s) as [s1| | | | |]; try discriminate. cbn [bind] in H.
    rewrite (IH _ _ _ _ H). rewrite andb_assoc. reflexivity.
Qed.

(* the Write calls of a print: the value after its directives, escaped iff the decision says so *)
Theorem print_writes_decision mu ds s ws :
  print_writes mu ds s = Ok ws ->
  exists s', apply_directives ds s (negb (mu =? 2)) = Ok (s', escape_decision mu (map cancel_of ds)) /\
             ws = if escape_decision mu (map cancel_of ds) then esc_writes [] s' else [s'].
Proof.
  unfold print_writes. intros H.
  destruct (apply_directives ds s (negb (mu =? 2))) as [[s' e]| | | | |] eqn:Ha; try discriminate.
  cbn [bind] in H. inversion H; subst ws.
  pose proof (apply_directives_esc _ _ _ _ _ Ha) as He. unfold escape_decision. rewrite <- He.
  exists s'. split; reflexivity.
Qed.

(* mode not off and no cancelling directive (obligatory ones included): the print contributes exactly
   the escaper's Write calls, i.e. html_escape of the value after the directives, which contains no raw
   special character and decodes back to that value *)
Theorem autoescaped_print_escaped mu ds s ws :
  mu <> 2 -> Forall (fun c => c = false) (map cancel_of ds) ->
  print_writes mu ds s = Ok ws ->
  exists s', apply_directives ds s true = Ok (s', true) /\
             ws = esc_writes [] s' /\ concat_b ws = html_escape s' /\
             no_raw_special (concat_b ws) /\ html_decode (concat_b ws) = s'.
Proof.
  intros Hmu Hc H.
  assert (Hd : escape_decision mu (map cancel_of ds) = true) by (apply escape_decision_spec; split; assumption).
  destruct (print_writes_decision _ _ _ _ H) as (s' & Ha & ->). rewrite Hd in *.
  assert (Hneg : negb (mu =? 2) = true) by (apply negb_true_iff; apply N.eqb_neq; exact Hmu).
  rewrite Hneg in Ha. exists s'. split; [exact Ha|]. split; [reflexivity|].
  split; [reflexivity|]. split; [apply html_escape_safe | apply html_decode_escape].
Qed.

(* the walker itself never produces the monitor's fault: [Crash e_mode] as the outcome of the
   instrumented walker can only be the monitor's *)

Definition okc {A} (o : outcome A) : Prop := match o with Crash m => m <> e_mode | _ => True end.

Lemma okc_bind {A B} (o : outcome A) (f : A -> outcome B) : okc o -> (forall x, okc (f x)) -> okc (bind o f).
Proof. destruct o; cbn; auto. Qed.

Ltac okc_step :=
  first [ exact Logic.I
        | (let Hd := fresh in intro Hd; discriminate Hd)
        | apply okc_bind; [|intro]
        | match goal with |- okc (match ?x with _ => _ end) => destruct x end
        | match goal with |- okc (if ?x then _ else _) => destruct x end
        | match goal with |- okc (let '(_, _) := ?x in _) => destruct x end ].

Lemma to_float_okc v : okc (to_float v).
Proof. unfold to_float. repeat okc_step. Qed.
Lemma of_fl_okc o : okc (of_fl o).
Proof. unfold of_fl. repeat okc_step. Qed.

Lemma to_string_okc fuel : forall v, okc (to_string fuel v).
Proof.
  induction fuel as [|f IH]; intros v; cbn [to_string]; [exact Logic.I|].
  destruct v; try exact Logic.I.
  - destruct x; exact Logic.I.
  - destruct (fl_to_string f0); exact Logic.I.
  - apply okc_bind; [|intro; exact Logic.I].
    induction l as [|a l IHl]; [exact Logic.I|].
    apply okc_bind; [apply IH|]. intro. apply okc_bind; [exact IHl|]. intro; exact Logic.I.
  - apply okc_bind; [|intro; exact Logic.I].
    induction m as [|[k a] m IHm]; [exact Logic.I|].
    apply okc_bind; [destruct a; try exact Logic.I; apply IH|]. intro. apply okc_bind; [exact IHm|]. intro; exact Logic.I.
Qed.
Lemma value_string_okc v : okc (value_string v).
Proof. apply to_string_okc. Qed.

Lemma float_op_okc f a c : okc (float_op f a c).
Proof. unfold float_op. apply okc_bind; [apply to_float_okc|]. intro. apply okc_bind; [apply to_float_okc|]. intro. apply of_fl_okc. Qed.

Lemma arith_okc op a c : okc (arith op a c).
Proof.
  unfold arith. destruct op; try exact Logic.I.
  - destruct a, c; try exact Logic.I; try apply float_op_okc; repeat okc_step.
  - apply float_op_okc.
  - destruct a, c; try exact Logic.I; repeat okc_step.
  - destruct a, c; try exact Logic.I; try apply float_op_okc;
      (destruct (_ || _); [apply okc_bind; [apply value_string_okc|]; intro; apply okc_bind; [apply value_string_okc|]; intro; exact Logic.I | apply float_op_okc]).
  - destruct a, c; try exact Logic.I; try apply float_op_okc; repeat okc_step.
Qed.

Lemma compare_op_okc op a c : okc (compare_op op a c).
Proof. unfold compare_op. apply okc_bind; [apply to_float_okc|]. intro. apply okc_bind; [apply to_float_okc|]. intro. exact Logic.I. Qed.

Lemma back_to_rune_start_okc fuel s : forall n, okc (back_to_rune_start fuel s n).
Proof.
  induction fuel as [|f IH]; intros n; cbn [back_to_rune_start]; repeat okc_step. apply IH.
Qed.
Lemma truncate_okc s n e : okc (truncate s n e).
Proof.
  unfold truncate. destruct (_ <=? _)%Z; [exact Logic.I|].
  destruct (if e then _ else _) as [m el]. apply okc_bind; [apply back_to_rune_start_okc|]. intro; exact Logic.I.
Qed.
Lemma apply_fn_okc fn args s : okc (apply_fn fn args s).
Proof.
  unfold apply_fn. repeat (destruct (Directives.fn_is _ _); [try exact Logic.I|]).
  all: try (repeat okc_step; apply truncate_okc).
  all: try (repeat okc_step).
Qed.

Lemma apply_directives_okc ds : forall s esc, okc (apply_directives ds s esc).
Proof.
  induction ds as [|[name args] r IH]; intros s esc; cbn [apply_directives]; [exact Logic.I|].
  destruct (lookup_directive name) as [[arglens [cancel [nilapply fn]]]|]; [|exact Logic.I].
  destruct (negb _); [exact Logic.I|]. destruct nilapply; [exact Logic.I|].
  apply okc_bind; [apply apply_fn_okc|]. intro. apply IH.
Qed.
Lemma print_writes_okc m ds s : okc (print_writes m ds s).
Proof. unfold print_writes. apply okc_bind; [apply apply_directives_okc|]. intros [s' e]. exact Logic.I. Qed.

Lemma apply_func_okc name vs : okc (apply_func name vs).
Proof.
  unfold apply_func.
  repeat (destruct (fn_is name _); [|]).
  all: repeat first [ apply to_float_okc | apply of_fl_okc | okc_step ].
Qed.

Definition not_e_mode (e : fault) : Prop := e <> FCrash e_mode.

Lemma okc_pure {A} (o : outcome A) : okc o -> inv_pure_ok not_e_mode o.
Proof. unfold inv_pure_ok, not_e_mode. destruct o; cbn; intros H; try exact Logic.I; try discriminate. intros He. inversion He. contradiction. Qed.

Lemma no_e_mode_sites : pure_sites (@inv_pure_ok not_e_mode).
Proof.
  constructor; intros; apply okc_pure.
  - exact Logic.I.
  - apply arith_okc.
  - apply compare_op_okc.
  - apply value_string_okc.
  - apply print_writes_okc.
  - apply apply_func_okc.
Qed.

Lemma no_e_mode_conditions : inv_conditions (fun _ => True) (fun _ _ => True) (fun _ _ => True) not_e_mode.
Proof. constructor; intros; try exact Logic.I; try (split; exact Logic.I). unfold not_e_mode. discriminate. Qed.

Theorem walk_never_e_mode cf fuel n st : fst (walk cf fuel n st) <> Crash e_mode.
Proof.
  destruct (walk cf fuel n st) as [r st'] eqn:H. cbn.
  pose proof (inv_walk _ _ _ _ no_e_mode_conditions cf no_e_mode_sites fuel n st r st' Logic.I H) as H1.
  destruct r; try discriminate. cbn in H1. destruct H1 as [_ H1]. intros He. inversion He; subst. apply H1. reflexivity.
Qed.

(* so on a well-formed registry the monitor never trips *)
Theorem monitor_never_trips cf fuel mu t st :
  registry_wf (c_reg cf) = true -> In t (r_templates (c_reg cf)) ->
  fst (walk_mon cf fuel mu (t_node t) st) <> Crash e_mode.
Proof. intros WF Hin. rewrite (walk_mon_is_walk cf WF fuel mu t st Hin). apply walk_never_e_mode. Qed.

Lemma find_template_in ts name t : find_template ts name = Some t -> In t ts.
Proof. apply find_template_In. Qed.

(* ---- a witness: the callee's namespace turns escaping off; the caller's prints before and after the
   call are escaped, the callee's is not ---- *)
Definition ex_caller := Eval vm_compute in b "a.caller".
Definition ex_callee := Eval vm_compute in b "b.callee".
Definition ex_x := Eval vm_compute in b "x".
Definition ex_print (p : N) : node := NPrint p (NDataRef p ex_x []) [].
Definition ex_reg : registry :=
  {| r_templates :=
       [{| t_name := ex_caller;
           t_node := NTemplate 0 ex_caller (NList 0 [ex_print 1; NCall 2 ex_callee true None []; ex_print 3]) 0 false;
           t_ns_name := b "a"; t_ns_autoescape := 0; t_params := [(ex_x, false)]; t_file := b "a.soy" |};
        {| t_name := ex_callee;
           t_node := NTemplate 0 ex_callee (NList 0 [ex_print 1]) 0 false;
           t_ns_name := b "b"; t_ns_autoescape := 2; t_params := [(ex_x, false)]; t_file := b "b.soy" |}];
     r_sources := [(ex_caller, b "0123456789"); (ex_callee, b "0123456789")];
     r_files := [(ex_caller, b "a.soy"); (ex_callee, b "b.soy")] |}.
Definition ex_mode_cfg : cfg := {| c_reg := ex_reg; c_ij := None; c_oblig := []; c_msgs := None |}.
