(* Source tie, family 77-gotrans-checker (parsepasses/datarefcheck.go): `contains` of the
   data-reference checker model (Model/RefView.v, used throughout Model/Checker.v) against the
   function as gotrans translates it from the source of the tree under check. *)
From Coq Require Import ZArith NArith Bool Lia List.
From Soy Require Import Model.Bytes Generated.Tables Model.RefView Proofs.SourceTieBase.
Import ListNotations.
Open Scope N_scope.

Lemma contains_matches_source (l : list bstr) (x : bstr) : contains l x = src_parsepasses_contains l x.
Proof.
  unfold src_parsepasses_contains. rewrite find_existsb.
  induction l as [|y r IH]; cbn [contains existsb]; [reflexivity|]. now rewrite IH.
Qed.
