(* C02: what Spec/Cmd.v says about switch with several values per case, css, log,
   debugger and msg/plural without a bundle, as readable lemmas of the Spec; and
   the parser's side of a {case v1, v2, ...} tag. *)
From Soy Require Import Model.Bytes Model.Num Model.Values Model.Outcome Model.Ast Model.Token Generated.Tables
  Model.Escape Model.Interp Model.Parser Spec.Cmd Proofs.ScopeNames.
Open Scope N_scope.

Lemma sbind_sE_ret {A B} (x : A) (k : A -> Cm B) n : sbind (sE (eret x)) k n = k x n.
Proof. unfold sbind, sE, eret. destruct (k x n) as [o r]. reflexivity. Qed.

(* switch: a case with the values v1..vk is taken iff the switch value equals one of them *)
(* [pure_vals l en vs vals]: the value expressions evaluate to [vals] and create no list or map *)
Definition pure_vals (l : level) (en : env) (vs : list node) (vals : list value) : Prop :=
  Forall2 (fun x v => forall n, l_eval l en x n = Ok (v, n)) vs vals.

Theorem case_hit_pure l en sv vs vals n :
  pure_vals l en vs vals -> case_hit_spec l en sv vs n = Ok (existsb (equals sv) vals, n).
Proof.
  induction 1 as [|x v vs vals Hx _ IH]; cbn [case_hit_spec existsb]; [reflexivity|].
  unfold ebind, ev. rewrite Hx. cbn [bind fst snd]. destruct (equals sv v); [reflexivity | exact IH].
Qed.

(* the values are tried left to right and the search stops at the first hit: later values are not evaluated *)
Theorem case_hit_stops l en sv x xs v n n' :
  l_eval l en x n = Ok (v, n') -> equals sv v = true -> case_hit_spec l en sv (x :: xs) n = Ok (true, n').
Proof. intros Hx He. cbn [case_hit_spec]. unfold ebind, ev. rewrite Hx. cbn [bind fst snd]. rewrite He. reflexivity. Qed.

Theorem switch_case_taken l entry md en sv p vs vals body r n :
  pure_vals l en vs vals -> existsb (equals sv) vals = true ->
  switch_spec l entry md en sv (NSwitchCase p vs body :: r) n = l_exec l entry en md body n.
Proof.
  intros Hp He. cbn [switch_spec]. unfold sbind at 1. unfold sE. rewrite (case_hit_pure l en sv vs vals n Hp), He.
  cbn [orb]. unfold ex. destruct (l_exec l entry en md body n) as [o rr]. reflexivity.
Qed.

Theorem switch_case_skipped l entry md en sv p vs vals body r n :
  pure_vals l en vs vals -> vs <> [] -> existsb (equals sv) vals = false ->
  switch_spec l entry md en sv (NSwitchCase p vs body :: r) n = switch_spec l entry md en sv r n.
Proof.
  intros Hp Hne He. cbn [switch_spec]. unfold sbind at 1. unfold sE. rewrite (case_hit_pure l en sv vs vals n Hp), He.
  destruct vs; [contradiction|]. cbn [orb]. destruct (switch_spec l entry md en sv r n) as [o rr]. reflexivity.
Qed.

Theorem switch_default_taken l entry md en sv p body r n :
  switch_spec l entry md en sv (NSwitchCase p [] body :: r) n = l_exec l entry en md body n.
Proof.
  cbn [switch_spec case_hit_spec]. rewrite sbind_sE_ret. reflexivity.
Qed.

Theorem switch_no_case l entry md en sv n : switch_spec l entry md en sv [] n = ([], Ok (tt, n)).
Proof. reflexivity. Qed.

Theorem css_plain cf l entry md en p suffix n : exec_body cf l entry md en (NCss p None suffix) n = (suffix, Ok (tt, n)).
Proof. cbn [exec_body]. unfold sbind, sret, semit. cbn. reflexivity. Qed.

Theorem css_expr cf l entry md en p x suffix n v n' s :
  l_eval l en x n = Ok (v, n') -> value_string v = Ok s ->
  exec_body cf l entry md en (NCss p (Some x) suffix) n = ((s ++ s_dash) ++ suffix, Ok (tt, n')).
Proof.
  intros Hx Hs. cbn [exec_body]. unfold sbind, sE, slift, elift, sret, semit, ev. rewrite Hx. rewrite Hs.
  cbn [bind app]. first [reflexivity | rewrite app_nil_r; reflexivity | rewrite <- app_assoc; reflexivity | rewrite app_assoc; reflexivity].
Qed.

Theorem log_writes_nothing cf l entry md en p body n : fst (exec_body cf l entry md en (NLog p body) n) = [].
Proof.
  cbn [exec_body]. unfold sbind, capture, ex. destruct (l_exec l entry en md body n) as [o [[[] n']| | | | |]]; reflexivity.
Qed.
Theorem log_body_ok cf l entry md en p body n o n' :
  l_exec l entry en md body n = (o, Ok (tt, n')) -> exec_body cf l entry md en (NLog p body) n = ([], Ok (tt, n')).
Proof. intros H. cbn [exec_body]. unfold sbind, capture, ex. rewrite H. reflexivity. Qed.
Theorem debugger_nothing cf l entry md en p n : exec_body cf l entry md en (NDebugger p) n = ([], Ok (tt, n)).
Proof. reflexivity. Qed.

(* plural without a bundle: the explicit case equal to the number, else the default *)
Definition plural_case_is (i : Z) (c : node) : bool :=
  match c with NMsgPluralCase _ cv _ => (cv =? i)%Z | _ => true end.

Theorem plural_explicit_case l entry md en mp i dflt cs1 p body cs2 n :
  forallb (fun c => negb (plural_case_is i c)) cs1 = true ->
  plural_spec l entry md en mp i dflt (cs1 ++ NMsgPluralCase p i body :: cs2) n =
  l_exec l entry en md (NMsg mp 0 [] [] body) n.
Proof.
  induction cs1 as [|c cs1 IH]; cbn [app plural_spec forallb]; intros H.
  - rewrite Z.eqb_refl. reflexivity.
  - apply andb_prop in H. destruct H as [Hc Hr]. destruct c; cbn [plural_case_is negb] in Hc; try discriminate Hc.
    rewrite Z.eqb_sym. destruct (v =? i)%Z; [discriminate Hc | exact (IH Hr)].
Qed.

Theorem plural_default l entry md en mp i dflt cs n :
  forallb (fun c => negb (plural_case_is i c)) cs = true ->
  plural_spec l entry md en mp i dflt cs n = l_exec l entry en md (NMsg mp 0 [] [] dflt) n.
Proof.
  induction cs as [|c cs IH]; cbn [plural_spec forallb]; intros H; [reflexivity|].
  apply andb_prop in H. destruct H as [Hc Hr]. destruct c; cbn [plural_case_is negb] in Hc; try discriminate Hc.
  rewrite Z.eqb_sym. destruct (v =? i)%Z; [discriminate Hc | exact (IH Hr)].
Qed.

Section Case.
Variable inlen : N.
Variable pe : N -> cst -> cres node.
Variable w : list N -> cst -> cres node.

(* the node holds, in source order, exactly the expressions parseExpr returned between the commas;
   {default} holds none and {case} at least one *)
Theorem case_values_in_order f : forall token values s n s',
  case_loop inlen pe w f token values s = COk n s' ->
  exists more body, n = NSwitchCase (t_pos token) (values ++ more) body /\
    Forall (fun v => exists s0 s1, pe 0 s0 = COk v s1) more /\
    (if tis token pit_Default then more = [] else more <> []).
Proof.
  induction f as [|f IH]; intros token values s n s' H; [discriminate|]. cbn [case_loop] in H.
  apply cbind_ok in H as (values1 & s1 & E1 & H).
  apply cbind_ok in H as (tok & s2 & _ & H).
  assert (Hv : exists add, values1 = values ++ add /\ Forall (fun v => exists s0 s1, pe 0 s0 = COk v s1) add /\
                           (if tis token pit_Default then add = [] else add <> [])).
  { destruct (tis token pit_Default).
    - injection E1 as <- _. exists []. rewrite app_nil_r. repeat split. constructor.
    - apply cbind_ok in E1 as (v & s0 & Ev & E1). injection E1 as <- _.
      exists [v]. split; [reflexivity|]. split; [|discriminate]. constructor; [|constructor]. exists s, s0. exact Ev. }
  destruct Hv as (add & -> & Hadd & Hd).
  destruct (tis tok pit_Comma).
  - destruct (IH _ _ _ _ _ H) as (more & body & -> & Hm & Hd').
    exists (add ++ more), body. rewrite app_assoc. split; [reflexivity|]. split; [apply Forall_app; split; assumption|].
    destruct (tis token pit_Default); [subst; reflexivity|]. intros E. apply app_eq_nil in E. destruct E as [E _]. exact (Hd E).
  - destruct (tis tok pit_RightDelim).
    + apply cbind_ok in H as (body & s3 & _ & H). injection H as <- _.
      exists add, body. repeat split; assumption.
    + exfalso. exact (unexp_not_ok _ _ _ _ _ _ H).
Qed.
End Case.

(* the parser: {css suffix} and {css expr, suffix}: the expression is the text before the LAST comma *)
Section Css.
Variable inlen : N.
Variable lexq : bstr -> list tok.
Variable pexpr : nat -> N -> pst -> presult node.
Variable efuel : list tok -> nat.

Theorem css_tag_shape token s n s' :
  parse_css inlen lexq pexpr efuel token s = COk n s' ->
  exists cmd : tok,
    match last_index_of 44 (t_val cmd) with
    | None => n = NCss (t_pos token) None (trim_space (t_val cmd))
    | Some i => exists e s2 s3,
        parse_quoted_expr inlen lexq pexpr efuel (trim_space (take i (t_val cmd))) s2 = COk e s3 /\
        n = NCss (t_pos token) (Some e) (trim_space (drop (S i) (t_val cmd)))
    end.
Proof.
  unfold parse_css. intros H.
  apply cbind_ok in H as (cmd & s1 & _ & H).
  apply cbind_ok in H as (? & s2 & _ & H).
  exists cmd. destruct (last_index_of 44 (t_val cmd)) as [i|].
  - apply cbind_ok in H as (e & s3 & E & H). injection H as <- _. exists e, s2, s3. split; [exact E | reflexivity].
  - injection H as <- _. reflexivity.
Qed.
End Css.
