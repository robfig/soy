(* A GUARDED version of the generic walker induction principle of
   Proofs/InterpLogic.v (Part B), for properties that hold only of some nodes:
   the one-unfolding principle of Proofs/InterpSub.v, read on one run, with
   "[deep g] holds of the node" as the reason why the hypothesis on [w] is
   available for the nodes handed to it ([deep_subnodes]).

   [deep g n] says that the local predicate [g] holds of [n] and of every node
   below it.  A "guarded walker logic" [walker_logic_g g Phi PhiT pure_ok] is the
   record of closure conditions of Part B with two differences: the NTemplate
   step (the one place where the walker changes the autoescape mode) is needed
   only for template nodes that satisfy [g], and the bracket of [call_enter]
   takes its premise from a SEPARATE predicate [PhiT] on the walk of a callee's
   template node -- the callee comes from the registry, not from below the
   current node, so no guard on the current node says anything about it.
   Theorem [walk_logic_g]: if [Phi (w n)] for every [n] with [deep g n] and
   [PhiT (w (t_node callee))] for every template of the registry, then
   [Phi (walk_body cf w n)] for every [n] with [deep g n].  The only nodes the
   walker synthesises ([NMsg mp 0 [] [] body] for the selected plural case) must
   satisfy [g] ([g_plural]). *)
From Soy Require Import Model.Bytes Model.Num Model.Values Model.Outcome Model.Ast
  Model.Escape Model.Directives Model.Print Generated.Tables Model.Interp Proofs.InterpLogic Proofs.InterpSub.
Require Import Lia.
Open Scope N_scope.

Section Deep.
Variable g : node -> bool.

Definition deep_opt (d : node -> bool) (o : option node) : bool :=
  match o with Some x => d x | None => true end.

Fixpoint deep (n : node) : bool :=
  g n &&
  match n with
  | NPrint p arg dirs => deep arg && forallb deep dirs
  | NFunc p name args => forallb deep args
  | NListLit p items => forallb deep items
  | NMapLit p items => forallb (fun kv => deep (snd kv)) items
  | NDataRef p key access => forallb deep access
  | NAccExpr p ns arg => deep arg
  | NNot p a => deep a
  | NNeg p a => deep a
  | NBin op p a1 a2 => deep a1 && deep a2
  | NTern p a1 a2 a3 => deep a1 && deep a2 && deep a3
  | NList p ns => forallb deep ns
  | NDirective p name args => forallb deep args
  | NCss p e suffix => deep_opt deep e
  | NLog p body => deep body
  | NIf p conds => forallb deep conds
  | NIfCond p c body => deep_opt deep c && deep body
  | NFor p var lst body ifempty => deep lst && deep body && deep_opt deep ifempty
  | NSwitch p v cases => deep v && forallb deep cases
  | NSwitchCase p values body => forallb deep values && deep body
  | NCall p name alldata dat params => deep_opt deep dat && forallb deep params
  | NParamValue p k v => deep v
  | NParamContent p k c => deep c
  | NLetValue p name e => deep e
  | NLetContent p name body => deep body
  | NMsg p id meaning desc body => forallb deep body
  | NMsgPlaceholder p name body => deep body
  | NMsgPlural p vn v cases dflt => deep v && forallb deep cases && forallb deep dflt
  | NMsgPluralCase p v body => forallb deep body
  | NTemplate p name body ae priv => deep body
  | _ => true
  end.

Lemma deep_g n : deep n = true -> g n = true.
Proof. destruct n; cbn [deep]; intros H; apply andb_prop in H; apply H. Qed.
End Deep.

(* split a [deep] hypothesis into its conjuncts *)
Ltac dsplit H :=
  cbn [deep deep_opt forallb snd] in H;
  repeat match goal with
         | Hx : (_ && _) = true |- _ => let H1 := fresh Hx in apply andb_prop in Hx; destruct Hx as [H1 Hx]
         end.

(* [deep g] passes from a node to the nodes one unfolding of the walker hands to [w]; the message
   nodes the walker makes up for a plural case must satisfy [g] *)
Section DeepSub.
Variable g : node -> bool.
Hypothesis g_plural : forall p l, g (NMsg p 0 [] [] l) = true.
Local Notation D := (fun c : node => deep g c = true).

Lemma deep_list l : forallb (deep g) l = true -> Forall D l.
Proof. intros H. apply Forall_forall, forallb_forall, H. Qed.

(* a loop over compound children [l], each handing the nodes [f a] to [w] *)
Lemma deep_loop (Q : node -> Prop) (f : node -> list node) l :
  (forall c, deep g c = true -> Q c) -> (forall a, deep g a = true -> Forall D (f a)) -> forallb (deep g) l = true ->
  Forall (fun a => Forall Q (f a)) l.
Proof.
  intros HQ Hf H. eapply Forall_impl; [|exact (deep_list l H)].
  intros a Ha. eapply Forall_impl; [exact HQ | exact (Hf a Ha)].
Qed.
Lemma deep_flat_map (f : node -> list node) l :
  (forall a, deep g a = true -> Forall D (f a)) -> forallb (deep g) l = true -> Forall D (flat_map f l).
Proof. intros Hf H. apply Forall_flat_map, (deep_loop D f l (fun _ Hc => Hc) Hf H). Qed.

Ltac deep_parts H := dsplit H; repeat first [ assumption | apply Forall_nil | apply Forall_cons | (apply deep_list; assumption) ].

Lemma deep_acc_subs a : deep g a = true -> Forall D (acc_subs a).
Proof. intros H. destruct a; cbn [acc_subs]; deep_parts H. Qed.
Lemma deep_dir_subs d : deep g d = true -> Forall D (dir_subs d).
Proof. intros H. destruct d; cbn [dir_subs]; deep_parts H. Qed.
Lemma deep_cond_subs c : deep g c = true -> Forall D (cond_subs c).
Proof. intros H. destruct c; cbn [cond_subs]; try apply Forall_nil. destruct cond; cbn [opt_list app]; deep_parts H. Qed.
Lemma deep_case_subs c : deep g c = true -> Forall D (case_subs c).
Proof. intros H. destruct c; cbn [case_subs]; try apply Forall_nil. apply Forall_app. split; deep_parts H. Qed.
Lemma deep_param_subs p : deep g p = true -> Forall D (param_subs p).
Proof. intros H. destruct p; cbn [param_subs]; deep_parts H. Qed.
Lemma deep_plural_msg mp l : forallb (deep g) l = true -> deep g (NMsg mp 0 [] [] l) = true.
Proof. intros H. cbn [deep]. rewrite g_plural, H. reflexivity. Qed.
Lemma deep_plural_case_subs mp c : deep g c = true -> Forall D (plural_case_subs mp c).
Proof. intros H. destruct c; cbn [plural_case_subs]; deep_parts H. apply deep_plural_msg. assumption. Qed.
Lemma deep_msg_subs mp x : deep g x = true -> Forall D (msg_subs mp x).
Proof.
  intros H. destruct x; cbn [msg_subs]; try apply Forall_nil.
  - apply Forall_cons; [exact H | apply Forall_nil].
  - deep_parts H.
  - dsplit H. apply Forall_cons; [assumption|]. apply Forall_cons; [apply deep_plural_msg; assumption|].
    apply deep_flat_map; [apply deep_plural_case_subs | assumption].
Qed.

Lemma deep_subnodes n : deep g n = true -> Forall D (subnodes n).
Proof.
  intros H. destruct n; cbn [subnodes]; try apply Forall_nil; try solve [deep_parts H].
  - (* NMapLit *) dsplit H. apply Forall_map, Forall_forall, forallb_forall. assumption.
  - (* NDataRef *) dsplit H. apply deep_flat_map; [apply deep_acc_subs | assumption].
  - (* NPrint *) dsplit H. apply Forall_cons; [assumption|]. apply deep_flat_map; [apply deep_dir_subs | assumption].
  - (* NCss *) destruct expr; cbn [opt_list]; deep_parts H.
  - (* NIf *) dsplit H. apply deep_flat_map; [apply deep_cond_subs | assumption].
  - (* NFor *) destruct ifempty; cbn [opt_list]; deep_parts H.
  - (* NSwitch *) dsplit H. apply Forall_cons; [assumption|]. apply deep_flat_map; [apply deep_case_subs | assumption].
  - (* NCall *) dsplit H. apply Forall_app. split; [destruct data; cbn [opt_list]; deep_parts H1|].
    apply deep_flat_map; [apply deep_param_subs | assumption].
  - (* NMsg *) dsplit H. apply deep_flat_map; [apply deep_msg_subs | assumption].
Qed.
End DeepSub.

Lemma find_template_In ts name t : find_template ts name = Some t -> In t ts.
Proof.
  induction ts as [|x r IH]; cbn [find_template]; intros H; [discriminate|].
  destruct (bstr_eqb (t_name x) name); [inversion H; left; reflexivity | right; apply IH, H].
Qed.

Section Guarded.
Variable cf : cfg.
Variable g : node -> bool.
Variable Phi : forall A : Type, M A -> Prop.
Arguments Phi {A} _.
Variable PhiT : M value -> Prop.       (* of the walk of a callee's template node *)
Variable pure_ok : forall A : Type, outcome A -> Prop.
Arguments pure_ok {A} _.

Record walker_logic_g : Prop := {
  wg_ext : forall A (m m' : M A), (forall st, m st = m' st) -> Phi m -> Phi m';
  wg_ret : forall A (x : A), Phi (ret x);
  wg_fail : forall A e, Phi (@fail A e);
  wg_lift : forall A (o : outcome A), pure_ok o -> Phi (lift o);
  wg_bind : forall A B (m : M A) (f : A -> M B), Phi m -> (forall x, Phi (f x)) -> Phi (mbind m f);
  wg_set_cur : forall p, Phi (modify (fun st => set_cur st p));
  wg_template_mode : forall p name body ae priv, g (NTemplate p name body ae priv) = true ->
      Phi (modify (fun st => set_mode st (template_mode (mode st) ae)));
  wg_write : forall w, Phi (write w);
  wg_set : forall k v, Phi (m_set k v);
  wg_lookup : forall k, Phi (m_lookup k);
  wg_fresh_list : forall l, Phi (fresh_list l);
  wg_fresh_list_or_nil : forall l, Phi (fresh_list_or_nil l);
  wg_fresh_map : forall m, Phi (fresh_map m);
  wg_read_mode : forall B (f : N -> M B), (forall x, Phi (f x)) -> Phi (st <-- get ;;; f (mode st));
  wg_read_ctx : forall B (f : scope -> M B), (forall x, Phi (f x)) -> Phi (st <-- get ;;; f (ctx st));
  wg_scoped : forall (m : M unit), Phi m -> Phi (_ <-- m_push ;;; _ <-- m ;;; _ <-- m_pop ;;; ret VUndef);
  wg_eval : forall (w : node -> M value) e, Phi (w e) -> Phi (eval w e);
  wg_block : forall (w : node -> M value) body, Phi (w body) -> Phi (render_block w body);
  wg_enter : forall (w : node -> M value) callee cd, PhiT (w (t_node callee)) -> Phi (call_enter w callee cd);
}.

Hypothesis L : walker_logic_g.
Hypothesis PS : pure_sites (@pure_ok).
Hypothesis g_plural : forall p l, g (NMsg p 0 [] [] l) = true.

Lemma guarded_body_logic : body_logic (fun A _ m => Phi m) (@pure_ok).
Proof. destruct L. constructor; eauto. apply (scoped2_of_scoped (fun A _ m => Phi m)); eauto. Qed.

Section Body.
Variable w : node -> M value.
Hypothesis Hw : forall n, deep g n = true -> Phi (w n).
Hypothesis HwT : forall callee, In callee (r_templates (c_reg cf)) -> PhiT (w (t_node callee)).

Lemma gphi_walk_body n : deep g n = true -> Phi (walk_body cf w n).
Proof.
  intros H.
  apply (bphi_walk_body cf _ _ guarded_body_logic (pure_sites_to_sub _ PS) w w n).
  - apply (wg_set_cur L).
  - intros p name body ae priv ->. apply (wg_template_mode L p name body ae priv), (deep_g g _ H).
  - eapply Forall_impl; [exact Hw | exact (deep_subnodes g g_plural n H)].
  - intros callee cd Hc. apply (wg_enter L), HwT. destruct n; try discriminate Hc. exact (find_template_In _ _ _ Hc).
Qed.
End Body.

(* closing the recursion: [PhiT] of the walks of the registry's template nodes is supplied separately *)
Theorem walk_logic_g :
  (forall fuel callee, In callee (r_templates (c_reg cf)) -> PhiT (walk cf fuel (t_node callee))) ->
  forall fuel n, deep g n = true -> Phi (walk cf fuel n).
Proof.
  intros HT. induction fuel as [|f IH]; intros n H.
  - rewrite walk_O. apply (wg_lift L). apply (ps_fuel _ PS).
  - rewrite walk_S. apply gphi_walk_body; [exact IH | apply HT | exact H].
Qed.
End Guarded.
