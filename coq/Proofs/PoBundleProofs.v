(* From the BYTES of a catalogue to pomsg's bundle: on the file File.WriteTo writes for the extractor's
   entries -- with any msgstr filled in -- po.Parse followed by the loop of pomsg.newBundle (Model/PoBundle.v)
   is [new_bundle] of Model/MsgParts.v on the (id, plural variable, msgstr) triples of the entries: the
   abstract catalogue over which C11's rendering theorems are stated. *)
From Coq Require Import Lia ZifyBool List Bool.
From Soy Require Import Model.Bytes Model.Outcome Model.Utf8 Model.Num Model.Values Model.Ast Model.MsgId Model.MsgParts
  Model.PoFile Model.PoEntry Model.PoBundle Proofs.PoFileProofs Proofs.PoEntryProofs Proofs.CodecJsonNum.
Import ListNotations.
Open Scope N_scope.

Lemma hval_ge s : forall acc, acc <= hval s acc.
Proof. induction s as [|c s IH]; intro acc; cbn [hval]; [lia|]. specialize (IH (acc * 10 + (c - 48))). lia. Qed.

Lemma uint_go_hval s : forall acc, Forall (fun c => 48 <= c <= 57) s -> hval s acc < 18446744073709551616 ->
  pb_uint_go s acc = Some (hval s acc).
Proof.
  induction s as [|c s IH]; intros acc Hd Hlt; [reflexivity|].
  inversion Hd as [|? ? Hc Hs]; subst. cbn [pb_uint_go hval] in *.
  replace (in_range 48 57 c) with true by (unfold in_range; lia).
  pose proof (hval_ge s (acc * 10 + (c - 48))) as Hge.
  replace (18446744073709551616 <=? acc * 10 + (c - 48)) with false by lia.
  apply IH; assumption.
Qed.

(* strconv.ParseUint reads back what fmt's %d wrote for a uint64 *)
Theorem parse_uint_dec id : id < 18446744073709551616 -> pb_parse_uint (dec_of_N id) = Some id.
Proof.
  intro H. unfold pb_parse_uint.
  destruct (dec_of_N_last id) as (m & c & E & _).
  destruct (dec_of_N id) as [|d ds] eqn:Ed; [destruct m; discriminate|]. rewrite <- Ed.
  rewrite uint_go_hval; [rewrite hval_dec; reflexivity|apply dec_of_N_range|rewrite hval_dec; exact H].
Qed.

Definition var_of (pv : option bstr) : bstr := match pv with Some v => v | None => [] end.

Lemma refs_loop_refs_of id pv : id < 18446744073709551616 ->
  pb_refs_loop (refs_of id pv) 0 [] = Ok (id, var_of pv).
Proof.
  intro H. unfold refs_of. cbn [pb_refs_loop]. rewrite is_prefix_app_self.
  change (drop 3 (pe_id_eq ++ dec_of_N id)) with (dec_of_N id). rewrite parse_uint_dec by exact H.
  destruct pv as [v|]; [|reflexivity]. cbn [pb_refs_loop].
  change (is_prefix pe_id_eq (pe_var_eq ++ v)) with false. cbv iota. rewrite is_prefix_app_self. reflexivity.
Qed.

(* what pomsg.newBundle keeps of an entry *)
Definition xentry_po (t : xentry) : po_entry :=
  let '(_, id, pv, f) := t in {| po_id := id; po_var := var_of pv; po_strs := norm_str f |}.
Definition xentry_id64 (t : xentry) : Prop := let '(_, id, _, _) := t in id < 18446744073709551616.

Lemma bundle_loop_entries : forall es bd, Forall xentry_id64 es ->
  pb_bundle_loop (map xentry_read es) bd = new_bundle_loop (map xentry_po es) bd.
Proof.
  induction es as [|t es IH]; intros bd H; [reflexivity|].
  inversion H as [|? ? Ht Hes]; subst. destruct t as [[[desc id] pv] f]. unfold xentry_id64 in Ht.
  cbn [map xentry_read xentry_po pb_bundle_loop new_bundle_loop pm_comment pc_refs pm_fields pf_str po_id po_var po_strs].
  rewrite refs_loop_refs_of by exact Ht. cbn [bind].
  destruct (id =? 0); [reflexivity|]. destruct (negb (is_translated (norm_str f))); apply IH; exact Hes.
Qed.

(* THE CATALOGUE FILE -> THE BUNDLE: the entries of the extractor, whatever their descriptions and whatever
   msgstr they carry, written by File.WriteTo, read by po.Parse and loaded by pomsg.newBundle *)
Theorem load_extracted_file is_print (es : list xentry) : Forall xentry_ok es -> Forall xentry_id64 es ->
  pb_load (pe_write_file is_print (map xentry_msg es)) = new_bundle (map xentry_po es).
Proof.
  intros Hok H64. unfold pb_load. rewrite parse_extracted_file by exact Hok. cbn [bind].
  apply bundle_loop_entries. exact H64.
Qed.
