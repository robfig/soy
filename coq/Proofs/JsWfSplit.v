(* C14, token grammar, bytes: a run of the byte lexer over t1 that ends in normal mode can be cut off from what follows
   ([lex_split]): lexing t1 ++ rest is lexing t1, then rest, whenever the last byte of t1 and the first bytes of rest
   cannot belong to one token ([sepP]). *)
From Soy Require Import Model.Bytes Model.JsGen Spec.JsSyntax Spec.JsShape Proofs.BytesBase Proofs.JsWfSplitBase Proofs.JsWfSplitNum.
From Coq Require Import ZifyBool Lia.
Open Scope N_scope.


Definition sepP (t1 : bstr) (li : bool) (rest : bstr) : Prop :=
  match t1, rest with
  | [], _ | _, [] => True
  | _ :: _, b :: r' =>
    let a := last t1 0 in
    (is_ident_part a = true -> is_ident_part b = false)
    /\ (li = true -> is_digit a = true -> b = 46 -> match r' with d :: _ => is_digit d = false | [] => True end)
    /\ (a = 46 -> is_digit b = false)
    /\ glue a b = false
    /\ (is_space a = true \/ a = 168 \/ a = 169 -> incr_next rest = false)
  end.

Lemma sepP_tail c r li rest : sepP (c :: r) li rest -> sepP r li rest.
Proof.
  destruct r as [|c2 r2]; [intros _; destruct rest; exact I|]. destruct rest as [|b r']; [intros _; exact I|].
  unfold sepP. rewrite last_cons_ne by discriminate. auto.
Qed.
Lemma sepP_li t li li' rest : (li' = true -> li = true) -> sepP t li rest -> sepP t li' rest.
Proof.
  intros Hl. destruct t as [|c t]; [intros _; destruct rest; exact I|]. destruct rest as [|b r']; [intros _; exact I|].
  unfold sepP. intros (A & B & C). split; [exact A|]. split; [|exact C]. intro H. apply B. auto.
Qed.
Lemma lastint_cons t ts : lastint ts = true -> lastint (t :: ts) = true.
Proof. unfold lastint. destruct ts as [|t2 ts]; [cbn; discriminate|]. rewrite (last_cons_ne t (t2 :: ts)) by discriminate. auto. Qed.
Lemma sepP_step c r t ts rest : sepP (c :: r) (lastint (t :: ts)) rest -> sepP r (lastint ts) rest.
Proof. intro H. apply sepP_tail in H. eapply sepP_li; [|exact H]. apply lastint_cons. Qed.

Lemma omap_prepend t ts (x : option (list jstoken * lexmode)) :
  option_map (fun '(ts0, m') => (t :: ts0, m')) (option_map (fun '(t0, m) => (ts ++ t0, m)) x)
  = option_map (fun '(t0, m) => ((t :: ts) ++ t0, m)) x.
Proof. destruct x as [[t0 m]|]; reflexivity. Qed.



Lemma lex_skip_le r : forall n m x, lex_text n m r = Some x -> (n <= length r)%nat.
Proof.
  induction r as [|c r IH]; intros n m x H; destruct n as [|k]; cbn [length]; try lia.
  - cbn in H. discriminate.
  - cbn [lex_text] in H. apply IH in H. lia.
Qed.
Lemma lex_skip_all r m : lex_text (length r) m r = Some ([], m).
Proof. induction r as [|c r IH]; [reflexivity|]. cbn [length lex_text]. exact IH. Qed.

Lemma match47 (x : N) : match x with 47 => true | _ => false end = (x =? 47).
Proof. destruct x as [|p]; [reflexivity|]. repeat (destruct p as [p|p|]; try reflexivity). Qed.

Lemma ls_at_app c r rest ts : ls_at c r = false -> lex_text 0 LComment r = Some (ts, LNormal) -> ls_at c (r ++ rest) = false.
Proof.
  intros H L. destruct r as [|c1 [|c2 r2]]; [cbn in L; discriminate| |exact H].
  cbn [app]. unfold ls_at. destruct rest as [|b r']; [reflexivity|]. destruct (c1 =? 128) eqn:E1; [|rewrite andb_false_r; reflexivity].
  apply N.eqb_eq in E1. subst c1. cbn in L. discriminate.
Qed.

Lemma num_span_alldigits s k : forallb is_digit s = true -> num_span s = Some k -> k = length s.
Proof.
  intros Ha H. rewrite num_span_eq in H. rewrite (forallb_span_all _ _ Ha), drop_whole in H. cbn in H.
  destruct (lead_okf s); [|discriminate H]. inversion H. reflexivity.
Qed.
Lemma lt_space c : (c =? 10) || (c =? 13) = true -> is_space c = true.
Proof. intro H. apply orb_prop in H. destruct H as [H|H]; apply N.eqb_eq in H; subst; reflexivity. Qed.

(* the two kinds of step of lex_split's induction.  [tok_step]: the lexer emitted a token and went on (H is
   option_map (prepend) of the recursive call): split the recursive call, use IH on it, prepend the token again.
   [plain_step]: the lexer went on without emitting: IH on the tail *)
Ltac tok_step IH S H :=
  match type of H with
  | option_map _ (lex_text ?n ?m' ?r) = Some _ =>
      let E := fresh "E" in let l := fresh "l" in let l0 := fresh "l0" in
      destruct (lex_text n m' r) as [[l l0]|] eqn:E; [|discriminate H];
      cbn [option_map] in H; injection H as H1 H2; subst;
      rewrite (IH _ _ _ E) by (eapply sepP_step; exact S); apply omap_prepend
  end.
Ltac plain_step IH S H := rewrite (IH _ _ _ H) by (eapply sepP_tail; exact S); reflexivity.

Section Split.
Variables (b : N) (r' : bstr).

Lemma lex_split : forall t1 skip m ts1,
  lex_text skip m t1 = Some (ts1, LNormal) -> sepP t1 (lastint ts1) (b :: r') ->
  lex_text skip m (t1 ++ b :: r') = option_map (fun '(t0, m0) => (ts1 ++ t0, m0)) (lex_text 0 LNormal (b :: r')).
Proof.
  induction t1 as [|c r IH]; intros skip m ts1 H Sp.
  - destruct skip; cbn in H; [|discriminate]. injection H as <- <-. cbn [app]. rewrite prepend_nil. reflexivity.
  - change ((c :: r) ++ b :: r') with (c :: (r ++ b :: r')). destruct skip as [|k].
    2:{ cbn [lex_text] in *. apply IH; [exact H|eapply sepP_tail; exact Sp]. }
    pose proof Sp as S0. unfold sepP in S0. destruct S0 as (Sw & Si & Sd & Sg & Sn).
    assert (Gl : r <> [] -> forall b0 r0, b :: r' = b0 :: r0 -> glue (last r 0) b0 = false).
    { intros Hr b0 r0 Eq. injection Eq as <- <-. rewrite <- (last_cons_ne c r 0 Hr). exact Sg. }
    destruct m; cbn [lex_text] in H |- *.
    + (* normal mode *)
      destruct (is_space c) eqn:Esp.
      { destruct (incr_app2 r (b :: r')) as [I1 I2]; [intro E; apply Sn; left; apply space_last; assumption|exact Gl|].
        rewrite I1. destruct (((c =? 10) || (c =? 13)) && incr_next r) eqn:Ei.
        - rewrite I2 by (apply andb_prop in Ei; apply Ei). unfold cons_tok in *. tok_step IH Sp H.
        - plain_step IH Sp H. }
      destruct ((c =? 39) || (c =? 34)); [plain_step IH Sp H|].
      destruct (is_ident_start c) eqn:Eid.
      { assert (En : span is_ident_part (r ++ b :: r') = span is_ident_part r).
        { apply span_app_gen. intro Q. apply Sw. destruct r as [|c2 r2].
          - cbn. unfold is_ident_part. rewrite Eid. reflexivity.
          - rewrite last_cons_ne by discriminate. apply last_forallb; [discriminate|]. apply span_all_forallb. exact Q. }
        rewrite En. rewrite take_app_le by apply span_le. tok_step IH Sp H. }
      destruct (is_digit c) eqn:Edg.
      { destruct (num_span (c :: r)) as [[|n]|] eqn:En; try discriminate H.
        destruct (lex_text n LNormal r) as [[l l0]|] eqn:E; [|discriminate H].
        cbn [option_map] in H. injection H as H1 H2. subst.
        pose proof (lex_skip_le _ _ _ _ E) as Hn.
        assert (En' : num_span (c :: (r ++ b :: r')) = Some (S n)).
        { change (c :: r ++ b :: r') with ((c :: r) ++ b :: r'). apply num_span_app; [discriminate|exact Edg|exact En|exact Sw| |exact Sd].
          intro Hall. apply Si; [|apply last_forallb; [discriminate|exact Hall]].
          pose proof (num_span_alldigits _ _ Hall En) as Hk. cbn [length] in Hk. injection Hk as ->.
          rewrite lex_skip_all in E. injection E as <-.
          change (take (S (length r)) (c :: r)) with (take (length (c :: r)) (c :: r)). rewrite take_whole. exact Hall. }
        rewrite En'. change (c :: r ++ b :: r') with ((c :: r) ++ b :: r'). rewrite take_app_le by exact (le_n_S _ _ Hn).
        rewrite (IH _ _ _ E) by (eapply sepP_step; exact Sp). apply omap_prepend. }
      assert (Ec : ((c =? 47) && match r ++ b :: r' with 47 :: _ => true | _ => false end)
                   = ((c =? 47) && match r with 47 :: _ => true | _ => false end)).
      { destruct r as [|x r0]; [|reflexivity]. cbn [app]. rewrite match47. destruct (c =? 47) eqn:E1; [|reflexivity].
        destruct (b =? 47) eqn:E2; [|reflexivity]. exfalso. apply N.eqb_eq in E1. apply N.eqb_eq in E2. subst.
        vm_compute in Sg. discriminate. }
      rewrite Ec. destruct ((c =? 47) && match r with 47 :: _ => true | _ => false end); [plain_step IH Sp H|].
      change (c :: r ++ b :: r') with ((c :: r) ++ b :: r'). rewrite find_punct_app.
      2:{ discriminate. }
      2:{ intros b0 r0 Eq. injection Eq as <- <-. exact Sg. }
      destruct (find_punct punct_table (c :: r)) as [[[|n] [p|]]|]; try discriminate H. tok_step IH Sp H.
    + (* comment *)
      destruct ((c =? 10) || (c =? 13)) eqn:Elt.
      { destruct (incr_app2 r (b :: r')) as [I1 I2]; [intro E; apply Sn; left; apply space_last; [apply lt_space; exact Elt|exact E]|exact Gl|].
        rewrite I1. destruct (incr_next r) eqn:Ei.
        - rewrite I2 by reflexivity. unfold cons_tok in *. tok_step IH Sp H.
        - plain_step IH Sp H. }
      destruct (ls_at c r) eqn:Els.
      { destruct r as [|c1 [|c2 r2]]; try discriminate Els. cbn [app drop] in H |- *.
        change (ls_at c (c1 :: c2 :: r2 ++ b :: r')) with (ls_at c (c1 :: c2 :: r2)). rewrite Els.
        destruct (incr_app2 r2 (b :: r')) as [I1 I2].
        { intro E. apply Sn. rewrite !last_cons_ne by discriminate. destruct r2 as [|c3 r3].
          - right. unfold ls_at in Els. apply andb_prop in Els. destruct Els as [_ Els]. apply orb_prop in Els.
            destruct Els as [Q|Q]; apply N.eqb_eq in Q; cbn; auto.
          - left. rewrite last_cons_ne by discriminate. apply last_forallb; [discriminate|]. apply skip_spaces_nil_all. exact E. }
        { intros Hr b0 r0 Eq. injection Eq as <- <-. rewrite <- (last_cons_ne c2 r2 0 Hr).
          rewrite <- (last_cons_ne c1 (c2 :: r2) 0) by discriminate. rewrite <- (last_cons_ne c (c1 :: c2 :: r2) 0) by discriminate. exact Sg. }
        rewrite I1. destruct (incr_next r2) eqn:Ei.
        - rewrite I2 by reflexivity. unfold cons_tok in *. change (c1 :: c2 :: r2 ++ b :: r') with ((c1 :: c2 :: r2) ++ b :: r'). tok_step IH Sp H.
        - change (c1 :: c2 :: r2 ++ b :: r') with ((c1 :: c2 :: r2) ++ b :: r'). plain_step IH Sp H. }
      rewrite (ls_at_app c r (b :: r') ts1 Els H). plain_step IH Sp H.
    + (* string *)
      destruct (c =? q); [tok_step IH Sp H|]. destruct (c =? 92); [plain_step IH Sp H|].
      destruct (c <? 32); [discriminate H|plain_step IH Sp H].
    + destruct ((c =? 92) || (c =? 39) || (c =? 34)); [plain_step IH Sp H|]. destruct (c =? 117); [plain_step IH Sp H|discriminate H].
    + destruct (is_hex c); [|discriminate H]. destruct k as [|[|k']]; plain_step IH Sp H.
Qed.
End Split.
