(* C13: Registry.Add rewrites the tree it is given (template/registry.go: the
   leading {@param} nodes are cut out of the template body and appended, as
   SoyDocParamNodes, to the SoyDoc node in front of the template).  What happens
   when a tree that Add has already rewritten is handed to Add again -- the
   situation of a second Compile that does not parse anew?

   - the rewriting is idempotent: Add leaves an already rewritten tree as it is
     ([processed_body_idem], [rewritten_file_idem]), without any hypothesis;
   - the registry built from the rewritten tree is the one built from the
     original tree ([registry_add_rewritten]) PROVIDED every template that has
     header params has a SoyDoc node in front of it ([headers_documented]):
     the params have moved into that node and are found there again;
   - without that SoyDoc the params are lost: Add keeps them in a SoyDoc node
     of its own that is not part of the tree
     ([C13_recompile_rewritten_undocumented_refuted] in Properties/C13.v).
     Bundle.Compile therefore has to parse every file anew on every call (it does:
     bundle.go keeps the TEXT of the files, not their trees). *)
From Coq Require Import List.
From Soy Require Import Model.Bytes Model.Num Model.Values Model.Outcome Model.Ast Model.MsgId Model.Compile
  Generated.Tables Spec.Determinism Proofs.CompileProofs.
Import ListNotations.
Open Scope N_scope.

Definition docparams_of (pv : node) : list node := match pv with NSoyDoc _ ps => ps | _ => [] end.

Lemma docparams_of_not_soydoc n : is_soydoc n = false -> docparams_of n = [].
Proof. destruct n; cbn; intros H; try reflexivity; discriminate. Qed.

Lemma span_headers_snd nodes : span_headers (snd (span_headers nodes)) = ([], snd (span_headers nodes)).
Proof.
  induction nodes as [|n r IH]; [reflexivity|]. cbn [span_headers].
  destruct (is_header_param n) eqn:E.
  - destruct (span_headers r) as [hs rest]. cbn [snd] in *. exact IH.
  - cbn [snd span_headers]. rewrite E. reflexivity.
Qed.

Section Readd.
  Variables (fname nsname : bstr) (nsae : N).
  Notation tl_ := (template_local fname nsname nsae).
  Notation pb := (processed_body fname nsname nsae).
  Notation fu := (file_units fname nsname nsae).

  (* what Add computes for a template in terms of the params of the node before it *)
  Definition unit_of (dp : list node) (p : N) (name : bstr) (lp : N) (nodes : list node) (ae : N) (priv : bool) : add_err + tmpl_unit :=
    let hs := fst (span_headers nodes) in
    let rest := snd (span_headers nodes) in
    let params := dp ++ map header_to_docparam hs in
    match hs, dp with
    | _ :: _, _ :: _ => inl (AEBothParamKinds name)
    | _, _ =>
        let node' := NTemplate p name (NList lp rest) ae priv in
        inr {| tu_template := {| t_name := name; t_node := node'; t_ns_name := nsname; t_ns_autoescape := nsae;
                                 t_params := flat_map docparam_sig params; t_file := fname |};
               tu_node := node'; tu_docparams := params |}
    end.

  Lemma tl_some pv p name lp nodes ae priv :
    tl_ (Some pv) (NTemplate p name (NList lp nodes) ae priv) = unit_of (docparams_of pv) p name lp nodes ae priv.
  Proof.
    unfold template_local, unit_of. destruct (span_headers nodes) as [hs rest]. cbn [fst snd]. reflexivity.
  Qed.

  Lemma tl_prev_ext prev prev' t :
    option_map docparams_of prev = option_map docparams_of prev' -> tl_ prev t = tl_ prev' t.
  Proof.
    intros H. destruct t; try reflexivity.
    destruct t; try (destruct prev, prev'; reflexivity).
    destruct prev as [pv|], prev' as [pv'|]; cbn [option_map] in H; try discriminate; [|reflexivity].
    injection H as H. rewrite !tl_some, H. reflexivity.
  Qed.

  (* the unit of an already stripped template *)
  Lemma unit_of_stripped dp p name lp nodes ae priv :
    unit_of dp p name lp (snd (span_headers nodes)) ae priv =
    inr {| tu_template := {| t_name := name; t_node := NTemplate p name (NList lp (snd (span_headers nodes))) ae priv;
                             t_ns_name := nsname; t_ns_autoescape := nsae;
                             t_params := flat_map docparam_sig dp; t_file := fname |};
           tu_node := NTemplate p name (NList lp (snd (span_headers nodes))) ae priv; tu_docparams := dp |}.
  Proof.
    unfold unit_of. rewrite span_headers_snd. cbn [fst snd map]. rewrite app_nil_r. reflexivity.
  Qed.

  (* one step of processed_body *)
  Definition out_node (prev : option node) (n : node) (r : list node) : node :=
    match n, r with
    | NSoyDoc p _, t :: _ =>
        if is_template t then
          match tl_ (Some n) t with
          | inr u => NSoyDoc p (tu_docparams u)
          | inl _ => n
          end
        else n
    | _, _ =>
        if is_template n then
          match tl_ prev n with inr u => tu_node u | inl _ => n end
        else n
    end.
  Lemma pb_cons prev n r : pb prev (n :: r) = out_node prev n r :: pb (Some n) r.
  Proof. reflexivity. Qed.

  Lemma out_node_not_doc prev n r : is_soydoc n = false ->
    out_node prev n r = if is_template n then match tl_ prev n with inr u => tu_node u | inl _ => n end else n.
  Proof. intros H. destruct n; try reflexivity. discriminate. Qed.

  Lemma out_node_other prev n r : is_soydoc n = false -> is_template n = false -> out_node prev n r = n.
  Proof. intros H H'. rewrite out_node_not_doc, H' by exact H. reflexivity. Qed.

  Lemma tl_ok_node prev t u : tl_ prev t = inr u ->
    exists p name lp nodes ae priv pv, t = NTemplate p name (NList lp nodes) ae priv /\ prev = Some pv /\
      tu_node u = NTemplate p name (NList lp (snd (span_headers nodes))) ae priv /\
      tu_docparams u = docparams_of pv ++ map header_to_docparam (fst (span_headers nodes)) /\
      (fst (span_headers nodes) = [] \/ docparams_of pv = []).
  Proof.
    intros H. destruct t; try discriminate. destruct t; try discriminate.
    destruct prev as [pv|]; [|discriminate].
    rewrite tl_some in H. unfold unit_of in H.
    exists p, name, p0, nodes, autoescape, private, pv.
    destruct (fst (span_headers nodes)) as [|h hs] eqn:Eh.
    - injection H as H. subst u. cbn. repeat split; auto.
    - destruct (docparams_of pv) as [|d ds] eqn:Ed; [|discriminate].
      injection H as H. subst u. cbn. repeat split; auto.
  Qed.

  Lemma is_template_out prev n r : is_template (out_node prev n r) = is_template n.
  Proof.
    destruct (is_soydoc n) eqn:Ed.
    - destruct n; try discriminate. cbn. destruct r as [|t r2]; [reflexivity|].
      destruct (is_template t); [|reflexivity]. destruct (tl_ _ t); reflexivity.
    - rewrite out_node_not_doc by exact Ed. destruct (is_template n) eqn:Et; [|exact Et].
      destruct (tl_ prev n) as [e|u] eqn:E; [exact Et|].
      destruct (tl_ok_node _ _ _ E) as (p & name & lp & nodes & ae & priv & pv & _ & _ & Hn & _). rewrite Hn. reflexivity.
  Qed.

  Lemma is_soydoc_out prev n r : is_soydoc (out_node prev n r) = is_soydoc n.
  Proof.
    destruct (is_soydoc n) eqn:Ed.
    - destruct n; try discriminate. cbn. destruct r as [|t r2]; [reflexivity|].
      destruct (is_template t); [|reflexivity]. destruct (tl_ _ t); reflexivity.
    - rewrite out_node_not_doc by exact Ed. destruct (is_template n) eqn:Et; [|exact Ed].
      destruct (tl_ prev n) as [e|u] eqn:E; [exact Ed|].
      destruct (tl_ok_node _ _ _ E) as (p & name & lp & nodes & ae & priv & pv & _ & _ & Hn & _). rewrite Hn. reflexivity.
  Qed.

  (* a template that Add has stripped is left alone by a second Add, whatever is in front of it *)
  Lemma readd_stripped prev prev' t u : tl_ prev t = inr u ->
    match tl_ prev' (tu_node u) with inr u2 => tu_node u2 | inl _ => tu_node u end = tu_node u.
  Proof.
    intros E. destruct (tl_ok_node _ _ _ E) as (p & name & lp & nodes & ae & priv & pv & _ & _ & Hn & _).
    rewrite Hn. destruct prev' as [pv'|]; [|reflexivity].
    rewrite tl_some, unit_of_stripped. reflexivity.
  Qed.

  (* [prev'] is what the first pass made of [prev]: a template rejected on the
     first pass is rejected on the second *)
  Definition failure_persists (prev prev' : option node) (body : list node) : Prop :=
    forall t r e, body = t :: r -> is_template t = true -> tl_ prev t = inl e -> exists e', tl_ prev' t = inl e'.

  Lemma failure_persists_step prev n r : failure_persists (Some n) (Some (out_node prev n r)) r.
  Proof.
    intros t r2 e -> Ht E.
    destruct (is_soydoc n) eqn:Ed.
    - destruct n; try discriminate. cbn [out_node]. rewrite Ht, E. exists e. exact E.
    - exists e. rewrite <- E. apply tl_prev_ext. cbn [option_map].
      rewrite !docparams_of_not_soydoc; [reflexivity | exact Ed | rewrite is_soydoc_out; exact Ed].
  Qed.

  Lemma out_node_idem prev prev' n r :
    failure_persists prev prev' (n :: r) ->
    out_node prev' (out_node prev n r) (pb (Some n) r) = out_node prev n r.
  Proof.
    intros H.
    destruct (is_soydoc n) eqn:Ed.
    - destruct n; try discriminate. clear Ed.
      destruct r as [|t r2]; [reflexivity|].
      rewrite pb_cons. cbn [out_node].
      destruct (is_template t) eqn:Ht.
      + assert (Htd : is_soydoc t = false) by (destruct t; try discriminate; reflexivity).
        rewrite (out_node_not_doc _ t) by exact Htd. rewrite Ht.
        destruct (tl_ (Some (NSoyDoc p params)) t) as [e|u] eqn:E.
        * unfold out_node. rewrite Ht, E. reflexivity.
        * destruct (tl_ok_node _ _ _ E) as (p1 & name & lp & nodes & ae & priv & pv & -> & Hpv & Hn & Hd & _).
          rewrite Hn. unfold out_node. cbn [is_template]. rewrite tl_some, unit_of_stripped. cbn [tu_docparams docparams_of]. reflexivity.
      + unfold out_node at 1. rewrite is_template_out, Ht. reflexivity.
    - rewrite (out_node_not_doc prev n) by exact Ed.
      destruct (is_template n) eqn:Et.
      + destruct (tl_ prev n) as [e|u] eqn:E.
        * rewrite out_node_not_doc, Et by exact Ed.
          destruct (H n r e eq_refl Et E) as (e' & ->). reflexivity.
        * assert (Hk : is_soydoc (tu_node u) = false).
          { destruct (tl_ok_node _ _ _ E) as (p & name & lp & nodes & ae & priv & pv & _ & _ & Hn & _). rewrite Hn. reflexivity. }
          assert (Hk' : is_template (tu_node u) = true).
          { destruct (tl_ok_node _ _ _ E) as (p & name & lp & nodes & ae & priv & pv & _ & _ & Hn & _). rewrite Hn. reflexivity. }
          rewrite out_node_not_doc, Hk' by exact Hk. eapply readd_stripped, E.
      + apply out_node_other; assumption.
  Qed.

  Lemma pb_idem_gen body : forall prev prev',
    failure_persists prev prev' body -> pb prev' (pb prev body) = pb prev body.
  Proof.
    induction body as [|n r IH]; intros prev prev' H; [reflexivity|].
    rewrite (pb_cons prev), pb_cons. f_equal.
    - apply out_node_idem, H.
    - apply IH, failure_persists_step.
  Qed.

  Theorem processed_body_idem_local body : pb None (pb None body) = pb None body.
  Proof. apply pb_idem_gen. intros t r e _ _ E. exists e. exact E. Qed.

  (* [prev'] carries the params the first pass computed for the template that follows *)
  Definition params_moved (prev prev' : option node) (body : list node) : Prop :=
    forall t r, body = t :: r -> is_template t = true ->
      match tl_ prev t with
      | inr u => exists pv', prev' = Some pv' /\ docparams_of pv' = tu_docparams u
      | inl _ => option_map docparams_of prev' = option_map docparams_of prev
      end.

  Lemma leading_headers_spec p name lp nodes ae priv :
    leading_headers (NTemplate p name (NList lp nodes) ae priv) = fst (span_headers nodes).
  Proof. reflexivity. Qed.

  Lemma params_moved_step prev n r :
    headers_documented (Some n) r = true -> params_moved (Some n) (Some (out_node prev n r)) r.
  Proof.
    intros Hd t r2 -> Ht.
    cbn [headers_documented] in Hd. apply andb_prop in Hd. destruct Hd as [Hd _].
    destruct (is_soydoc n) eqn:Ed.
    - destruct n; try discriminate. cbn [out_node]. rewrite Ht.
      destruct (tl_ (Some (NSoyDoc p params)) t) as [e|u] eqn:E; [reflexivity|].
      eexists. split; reflexivity.
    - assert (Ho : docparams_of (out_node prev n (t :: r2)) = []).
      { apply docparams_of_not_soydoc. rewrite is_soydoc_out. exact Ed. }
      destruct (tl_ (Some n) t) as [e|u] eqn:E.
      + cbn [option_map]. rewrite Ho, docparams_of_not_soydoc by exact Ed. reflexivity.
      + destruct (tl_ok_node _ _ _ E) as (p & name & lp & nodes & ae & priv & pv & -> & Hpv & _ & Hdp & _).
        injection Hpv as <-. rewrite leading_headers_spec in Hd.
        destruct (fst (span_headers nodes)) as [|h hs]; [|discriminate].
        eexists. split; [reflexivity|]. rewrite Ho, Hdp, docparams_of_not_soydoc by exact Ed. reflexivity.
  Qed.

  Lemma tl_out_node prev prev' n r : is_template n = true -> params_moved prev prev' (n :: r) ->
    tl_ prev' (out_node prev n r) = tl_ prev n.
  Proof.
    intros Ht H. specialize (H n r eq_refl Ht).
    assert (Ed : is_soydoc n = false) by (destruct n; try discriminate; reflexivity).
    rewrite out_node_not_doc, Ht by exact Ed.
    destruct (tl_ prev n) as [e|u] eqn:E.
    - rewrite <- E. apply tl_prev_ext. exact H.
    - destruct H as (pv' & -> & Hdp).
      destruct (tl_ok_node _ _ _ E) as (p & name & lp & nodes & ae & priv & pv & -> & -> & Hn & Hd & Hor).
      rewrite Hn, tl_some, unit_of_stripped, Hdp, Hd.
      rewrite tl_some in E. unfold unit_of in E.
      destruct Hor as [Hh|Hp].
      + rewrite Hh in *. rewrite <- E. reflexivity.
      + rewrite Hp in *. destruct (fst (span_headers nodes)); rewrite <- E; reflexivity.
  Qed.

  Lemma file_units_pb body : forall prev prev',
    headers_documented prev body = true -> params_moved prev prev' body ->
    fu prev' (pb prev body) = fu prev body.
  Proof.
    induction body as [|n r IH]; intros prev prev' Hd H; [reflexivity|].
    rewrite pb_cons. cbn [file_units]. rewrite is_template_out.
    cbn [headers_documented] in Hd. apply andb_prop in Hd. destruct Hd as [_ Hd].
    f_equal.
    - destruct (is_template n) eqn:Ht; [|reflexivity]. f_equal. apply tl_out_node; assumption.
    - apply IH; [exact Hd | apply params_moved_step, Hd].
  Qed.

  Lemma file_units_processed body :
    headers_documented None body = true -> fu None (pb None body) = fu None body.
  Proof.
    intros Hd. apply file_units_pb; [exact Hd|].
    intros t r _ Ht. destruct t; try discriminate. destruct t; reflexivity.
  Qed.

  Lemma find_namespace_pb body : forall prev x, find_namespace body = inr x -> find_namespace (pb prev body) = inr x.
  Proof.
    induction body as [|n r IH]; intros prev x H; [discriminate|].
    rewrite pb_cons.
    destruct n; cbn [find_namespace] in H; try discriminate.
    - rewrite out_node_other by reflexivity. exact H.
    - assert (Hs : is_soydoc (out_node prev (NSoyDoc p params) r) = true) by (rewrite is_soydoc_out; reflexivity).
      destruct (out_node prev (NSoyDoc p params) r); try discriminate. cbn [find_namespace]. apply IH, H.
  Qed.
End Readd.

Theorem processed_body_idem fname nsname nsae body :
  processed_body fname nsname nsae None (processed_body fname nsname nsae None body) = processed_body fname nsname nsae None body.
Proof. apply processed_body_idem_local. Qed.

Theorem rewritten_file_idem f : rewritten_file (rewritten_file f) = rewritten_file f.
Proof.
  unfold rewritten_file at 2 3. destruct (find_namespace (sfile_body f)) as [e|[ns ae]] eqn:E.
  - unfold rewritten_file. rewrite E. reflexivity.
  - unfold rewritten_file. cbn [sfile_body sfile_name sfile_text].
    rewrite (find_namespace_pb _ _ _ _ _ _ E), processed_body_idem. reflexivity.
Qed.

(* Add on the tree an earlier Add has rewritten: the same registry, the same
   error, the same tree *)
Theorem registry_add_rewritten r f :
  headers_documented None (sfile_body f) = true -> registry_add r (rewritten_file f) = registry_add r f.
Proof.
  intros Hd. unfold rewritten_file. destruct (find_namespace (sfile_body f)) as [e|[ns ae]] eqn:E; [reflexivity|].
  unfold registry_add. cbn [sfile_body sfile_name sfile_text].
  rewrite (find_namespace_pb _ _ _ _ _ _ E), E, file_units_processed by exact Hd.
  rewrite processed_body_idem. reflexivity.
Qed.

Lemma rewritten_file_name f : sfile_name (rewritten_file f) = sfile_name f.
Proof. unfold rewritten_file. destruct (find_namespace (sfile_body f)) as [e|[ns ae]]; reflexivity. Qed.

Lemma add_all_files_readd srcs : forall srcs' r,
  Forall2 readd_variant srcs srcs' -> Forall (fun s => src_documented s = true) srcs ->
  add_all_files r srcs' = add_all_files r srcs.
Proof.
  induction srcs as [|s rest IH]; intros srcs' r H2 Hd; inversion H2; subst; [reflexivity|].
  inversion Hd; subst.
  assert (Hs : forall r0, add_all_files r0 (y :: l') = add_all_files r0 (s :: l')).
  { intros r0. destruct H1 as [->| ->]; [reflexivity|].
    destruct s as [f|name msg]; [|reflexivity].
    cbn [rewritten_src add_all_files]. rewrite registry_add_rewritten, rewritten_file_name by assumption. reflexivity. }
  rewrite Hs. destruct s as [f|name msg]; [|reflexivity].
  cbn [add_all_files]. destruct (registry_add r f) as [e|r']; [reflexivity|]. apply IH; assumption.
Qed.

(* Compiling again -- with other map iteration orders -- from trees of which any
   number have been rewritten by an earlier compilation gives the result of the
   first compilation. *)
Theorem compile_readd ns o o' calls srcs srcs' :
  perm_orders o -> perm_orders o' ->
  Forall (fun s => src_documented s = true) srcs -> Forall2 readd_variant srcs srcs' ->
  compile ns o' calls srcs' = compile ns o calls srcs.
Proof.
  intros Ho Ho' Hd H2. rewrite (compile_oracle_independent ns o' o calls srcs' Ho' Ho).
  unfold compile, compile_gen. rewrite (add_all_files_readd srcs srcs' empty_creg H2 Hd). reflexivity.
Qed.

Lemma readd_variant_all srcs : Forall2 readd_variant srcs (map rewritten_src srcs).
Proof. induction srcs; constructor; [right; reflexivity | assumption]. Qed.

Theorem compile_rewritten ns o o' calls srcs :
  perm_orders o -> perm_orders o' -> Forall (fun s => src_documented s = true) srcs ->
  compile ns o' calls (map rewritten_src srcs) = compile ns o calls srcs.
Proof. intros Ho Ho' Hd. apply compile_readd; [assumption..|apply readd_variant_all]. Qed.
