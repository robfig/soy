(* C19, parse half: scanner model and parser model composed -- bytes -> items -> error.
   For EVERY byte string s (the statement carries floats_ok, which the parser model does not need:
   Proofs/ErrPosCompose.v c19_parse_error_position_all is the statement without it) the scan
   returns an item list, parse.SoyFile's model run on it returns a tree or an error (never the
   run-time panic of lineNumber's slice, never out of fuel: Proofs/LexParseBridge.v), and an error
   carries a token whose position lies inside s and whose line -- line_at s pos, what
   lexer.lineNumber computes -- lies between 1 and lines s.  The one exception: an error
   raised inside a quoted attribute expression (class prefixed "quoted:"), whose sub-scanner may
   be positioned relative to the attribute text (the model takes that scanner as a parameter). *)
From Soy Require Import Model.Bytes Model.Outcome Model.Ast Model.Token Model.Lexer Model.Parser Spec.ErrPos Proofs.ErrTokProofs
  Proofs.ParseErrBound Proofs.ParserProofs Proofs.LexParseBridge.
Open Scope N_scope.

Section Composed.
Variable ul ud : Z -> bool.
Hypothesis Hl : ul (-1)%Z = false.
Hypothesis Hd : ud (-1)%Z = false.
Variable lexq : bstr -> list tok.
Variable unq : bstr -> option bstr.
Hypothesis Hlexq : lexq_wf lexq.

Definition parse_bytes (s : bstr) : outcome (presult node) :=
  ts <- lex_items ul ud (lex_budget s) false s ;;
  Ok (po_result (soy_file (N.of_nat (length s)) lexq unq ts)).

Theorem parse_error_position_composed (s : bstr) :
  exists ts, lex_items ul ud (lex_budget s) false s = Ok ts /\
    (floats_ok ts ->
     match po_result (soy_file (N.of_nat (length s)) lexq unq ts) with
     | POk _ _ => True
     | PErr t c _ =>
         (is_prefix e_quoted c = false -> t_pos t <= N.of_nat (length s)) /\
         1 <= line_at s (t_pos t) <= lines s
     | PCrash _ | PFuel => False
     end).
Proof.
  destruct (soy_file_total_composed ul ud Hl Hd lexq unq Hlexq s) as (ts & Hlex & Htot).
  exists ts. split; [exact Hlex|]. intros Hf. destruct (Htot Hf) as [Hte _].
  destruct (po_result (soy_file (N.of_nat (length s)) lexq unq ts)) as [n st|t c st|m|] eqn:E; cbn in Hte; try contradiction; [exact I|].
  split; [|apply line_at_inside].
  intros Hq. unfold soy_file in E. destruct (parse_file_error_inside _ _ _ _ _ _ _ _ _ _ E) as [H|H]; [exact H | congruence].
Qed.
End Composed.
