(* C17 at command level: the print command as beginTag reads it inside a template body.
   Model/Parser.v cmd_print / cmd_print_loop / directive_args are the command-level copy of parsePrint
   (Model/ExprParser.v parse_print / print_loop / directive_args_loop): on a state with
   peekCount <= 2 every successful run of the latter is a run of the former.  So the rule for the
   print command is the expression-level round trip [parse_show_print]. *)
From Soy Require Import Model.Bytes Model.Outcome Model.Ast Model.Token Model.RawText Model.ExprParser Model.Parser Generated.Tables
  Spec.ExprSyntax Spec.CmdSyntax Proofs.ExprParserRules Proofs.ExprParserProofs Proofs.ExprParserMono Proofs.CmdRoundtripBase Proofs.CmdRoundtripRules.
From Coq Require Import Lia.
Open Scope N_scope.

Section Sim.
Variables (inlen : N) (s : cst) (sc : list scanrec) (g : nat).
Notation PE := (lift_expr inlen parse_expr g).

Lemma sim_next p t p1 : inv p -> p_next p = (t, p1) ->
  c_next (set_ps s p sc) = COk t (set_ps s p1 sc) /\ inv p1 /\ inv (p_backup p1).
Proof.
  intros Hi E. pose proof (p_next_lrel p Hi) as R. rewrite E in R. cbn [fst snd] in R. destruct R as [R1 _ _ R2 _].
  unfold c_next. cbn [c_p set_ps]. replace (3 <=? p_peek p)%nat with false by (symmetry; apply Nat.leb_gt; unfold inv in Hi; lia).
  rewrite E. unfold inv. repeat split; [lia | exact R2].
Qed.

Lemma sim_expr p e p' : inv p -> parse_expr g 0 p = POk e p' -> PE 0 (set_ps s p sc) = COk e (set_ps s p' sc) /\ inv p'.
Proof.
  intros Hi E. split; [|exact (parse_expr_inv g 0 p e p' Hi E)]. unfold lift_expr. cbn [c_p set_ps]. rewrite E. reflexivity.
Qed.

(* the loops: the command level runs them on a budget that is at least the expression level's *)
Lemma sim_dargs : forall f f2, (f <= f2)%nat -> forall args p r p', inv p ->
  directive_args_loop (parse_expr g) f args p = POk r p' ->
  directive_args PE f2 args (set_ps s p sc) = COk r (set_ps s p' sc) /\ inv p'.
Proof.
  induction f as [|f IH]; intros f2 Hle args p r p' Hi E; [discriminate E|]. destruct f2 as [|f2]; [lia|].
  rewrite directive_args_loop_S in E. cbn [directive_args]. destruct (p_next p) as [nx p1] eqn:En.
  destruct (sim_next p nx p1 Hi En) as (-> & Hi1 & Hib). cbn [cbind].
  change (tis nx pit_Colon || tis nx pit_Comma) with ((t_typ nx =? pk_itemColon) || (t_typ nx =? pk_itemComma)).
  destruct ((t_typ nx =? pk_itemColon) || (t_typ nx =? pk_itemComma)).
  - destruct (parse_expr g 0 p1) as [e p2| | |] eqn:Ee; try discriminate E.
    destruct (sim_expr p1 e p2 Hi1 Ee) as (-> & Hi2). apply (IH f2 ltac:(lia)); assumption.
  - injection E as <- <-. split; [reflexivity | exact Hib].
Qed.

Lemma sim_ploop : forall f f2, (f <= f2)%nat -> (f <= g)%nat -> forall q e dirs p n p', inv p ->
  print_loop (parse_expr g) f q e dirs p = POk n p' ->
  cmd_print_loop inlen PE g f2 q e dirs (set_ps s p sc) = COk n (set_ps s p' sc) /\ inv p'.
Proof.
  induction f as [|f IH]; intros f2 Hle Hg q e dirs p n p' Hi E; [discriminate E|]. destruct f2 as [|f2]; [lia|].
  rewrite print_loop_S in E. cbn [cmd_print_loop]. destruct (p_next p) as [t p1] eqn:En.
  destruct (sim_next p t p1 Hi En) as (-> & Hi1 & _). cbn [cbind].
  change (tis t pit_RightDelim) with (t_typ t =? pk_itemRightDelim). destruct (t_typ t =? pk_itemRightDelim).
  { injection E as <- <-. split; [reflexivity | exact Hi1]. }
  change (tis t pit_Pipe) with (t_typ t =? pk_itemPipe). destruct (t_typ t =? pk_itemPipe).
  2:{ unfold p_unexpected in E. destruct (t_typ t =? pk_itemError); discriminate E. }
  unfold p_expect in E. unfold c_expect. destruct (p_next p1) as [id p2] eqn:En2.
  destruct (sim_next p1 id p2 Hi1 En2) as (-> & Hi2 & _). cbn [cbind].
  change (tis id pit_Ident) with (t_typ id =? pk_itemIdent). destruct (t_typ id =? pk_itemIdent).
  2:{ unfold p_unexpected in E. destruct (t_typ id =? pk_itemError); discriminate E. }
  cbn [pbind] in E. cbn [cbind].
  destruct (directive_args_loop (parse_expr g) (S f) [] p2) as [args p3| | |] eqn:Ed; try discriminate E.
  destruct (sim_dargs (S f) g Hg [] p2 args p3 Hi2 Ed) as (-> & Hi3). apply (IH f2 ltac:(lia) ltac:(lia)); assumption.
Qed.

Lemma sim_print token p n p' : inv p -> parse_print g (t_pos token) p = POk n p' ->
  cmd_print inlen PE g token (set_ps s p sc) = COk n (set_ps s p' sc).
Proof.
  intros Hi E. unfold parse_print, parse_print_body in E. unfold cmd_print.
  destruct (parse_expr g 0 p) as [e p1| | |] eqn:Ee; try discriminate E.
  destruct (sim_expr p e p1 Hi Ee) as (-> & Hi1). apply (sim_ploop g g (le_n _) (le_n _)); assumption.
Qed.
End Sim.

Section Print.
Variable ns : bstr.
Variable al : list (bstr * bstr).
Variable m : bool.
Variable inlen : N.
Variable lexq : bstr -> list tok.
Variable unq : bstr -> option bstr.
Variable efuel : list tok -> nat.

Notation PE g := (lift_expr inlen parse_expr g).
Notation IL g := (item_list inlen lexq unq parse_expr efuel g).
Notation BT g := (begin_tag inlen lexq unq parse_expr efuel (PE g) (IL g) g).
Notation Tag := (Tag ns al inlen lexq unq efuel m).
Notation CRun := (CRun ns al m).

(* the type of such an item is none of the types beginTag tests before the implicit print, no special
   character, and one of parser_implicit_print *)
Lemma start_type_tis k c : mem (t_typ k) expr_start_types = true -> mem c expr_start_types = false -> tis k c = false.
Proof. intros Hk Hc. unfold tis. destruct (N.eqb_spec (t_typ k) c) as [E|]; [rewrite E, Hc in Hk; discriminate Hk | reflexivity]. Qed.

Lemma start_type_implicit ty : mem ty expr_start_types = true ->
  assoc ty parser_special_chars = None /\ one_of ty parser_implicit_print = true.
Proof.
  unfold mem, expr_start_types. cbn [existsb]. intros H.
  repeat (apply orb_true_iff in H; destruct H as [H|H]); try discriminate H; apply N.eqb_eq in H; rewrite H; split; reflexivity.
Qed.

Lemma begin_tag_implicit g k s p0 sc0 p1 :
  mem (t_typ k) expr_start_types = true -> c_next (set_ps s p0 sc0) = COk k (set_ps s p1 sc0) ->
  BT g (set_ps s p0 sc0) = cbind (cmd_print inlen (PE g) g k (set_ps s (p_backup p1) sc0)) (fun n s' => COk (Some n) s').
Proof.
  intros Hmem Hn. unfold begin_tag. rewrite Hn. cbn [cbind]. rewrite c_backup_set_ps.
  rewrite !(start_type_tis k) by (exact Hmem || reflexivity).
  destruct (start_type_implicit _ Hmem) as [-> ->]. reflexivity.
Qed.

Theorem Tag_print p arg dirs rest k l :
  wf_print (NPrint p arg dirs) -> p = first_pos (tokens_of_print (NPrint p arg dirs)) ->
  tokens_of_print (NPrint p arg dirs) ++ rest = k :: l ->
  Tag (k :: l) (NPrint p arg dirs) rest.
Proof.
  intros Hw Hp E s p0 sc Hs Hi Hm. destruct (next_spec _ _ _ Hs Hi) as (p1 & Hn & _ & _ & Hsb & Hib).
  (* the first item starts an expression and carries the command's position *)
  destruct (show_starts_expression sty_min arg (proj1 Hw) [0%nat] (sty_min [0%nat])) as (x & lx & Ex & Hx).
  assert (Hk : k = x /\ p = t_pos x).
  { unfold tokens_of_print in E, Hp. cbn [show_print] in E, Hp. rewrite Ex in E, Hp. cbn [app first_pos] in E, Hp.
    inversion E. split; congruence. }
  destruct Hk as [-> ->].
  destruct (parse_show_print sty_min [] (t_pos x) arg dirs rest Hw (p_backup p1)) as (p' & Hs' & Hi' & f0 & HF);
    [rewrite Hsb; symmetry; exact E | exact Hib|].
  exists p', sc. split; [exact Hs'|]. split; [exact Hi'|]. exists f0. intros g lf Hg _.
  rewrite (begin_tag_implicit g x s p0 sc p1 Hx), (sim_print inlen s sc g x (p_backup p1) _ p' Hib (HF g g Hg Hg));
    [reflexivity|].
  unfold c_next. cbn [c_p set_ps]. replace (3 <=? p_peek p0)%nat with false by (symmetry; apply Nat.leb_gt; unfold inv in Hi; lia).
  rewrite Hn. reflexivity.
Qed.
End Print.
