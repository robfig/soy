(* Source tie, family 70-gotrans-lexer-preds (parse/lexer.go): the predicates and tables
   the lexer model is written over, against the same functions as gotrans translates them
   from the source of the tree under check (src_parse_* in Generated/Tables.v).  A semantic change of one of
   these Go functions breaks the lemma named after it. *)
From Coq Require Import ZArith NArith Bool Lia ZifyBool List.
From Soy Require Import Model.Bytes Generated.Tables Model.RawText Model.Lexer Proofs.SourceTieBase.
Import ListNotations.
Open Scope N_scope.

(* ---- rune predicates: the expressions tablegen's special-purpose generator emits
   (gen_*, used by Model/Lexer.v directly) against the general translation ---- *)
Lemma gen_isSpace_matches_source (r : Z) : gen_isSpace r = src_parse_isSpace r.
Proof. unfold gen_isSpace, src_parse_isSpace. bool_lia. Qed.

Lemma gen_isEndOfLine_matches_source (r : Z) : gen_isEndOfLine r = src_parse_isEndOfLine r.
Proof. unfold gen_isEndOfLine, src_parse_isEndOfLine. bool_lia. Qed.

Lemma gen_isSpaceEOL_matches_source (r : Z) : gen_isSpaceEOL r = src_parse_isSpaceEOL r.
Proof.
  (* by value, not through the two lemmas above: the source may call isSpace / isEndOfLine or test the four
     characters itself (seeded/harmless2/1) *)
  unfold gen_isSpaceEOL, gen_isSpace, gen_isEndOfLine, src_parse_isSpaceEOL, src_parse_isSpace, src_parse_isEndOfLine.
  bool_lia.
Qed.

Lemma gen_isLetterOrUnderscore_matches_source (r : Z) :
  gen_isLetterOrUnderscore r = src_parse_isLetterOrUnderscore r.
Proof. unfold gen_isLetterOrUnderscore, src_parse_isLetterOrUnderscore. bool_lia. Qed.

Lemma gen_isDigit_matches_source (r : Z) : gen_isDigit r = src_parse_isDigit r.
Proof. unfold gen_isDigit, src_parse_isDigit. bool_lia. Qed.

(* unicode.IsLetter / unicode.IsDigit are parameters on both sides *)
Lemma gen_isAlphaNumeric_matches_source (ul ud : Z -> bool) (r : Z) :
  gen_isAlphaNumeric ul ud r = src_parse_isAlphaNumeric ul ud r.
Proof.
  unfold gen_isAlphaNumeric, src_parse_isAlphaNumeric.
  destruct (ul r), (ud r), (r =? 95)%Z eqn:E; rewrite ?E; reflexivity.
Qed.

Lemma is_alnum_matches_source (ul ud : Z -> bool) (r : Z) :
  is_alnum ul ud r = src_parse_isAlphaNumeric ul ud r.
Proof. unfold is_alnum. apply gen_isAlphaNumeric_matches_source. Qed.

(* ---- the hand-written copies in Model/RawText.v (runes as N) ---- *)
Lemma is_space_matches_source (r : N) : is_space r = src_parse_isSpace (Z.of_N r).
Proof. unfold is_space, src_parse_isSpace. bool_lia. Qed.

Lemma is_eol_matches_source (r : N) : is_eol r = src_parse_isEndOfLine (Z.of_N r).
Proof. unfold is_eol, src_parse_isEndOfLine. bool_lia. Qed.

(* ---- itemType predicates (item codes as N in the models) ---- *)
Lemma is_op_matches_source (t : N) : is_op t = src_parse_itemType_isOp (Z.of_N t).
Proof. unfold is_op, src_parse_itemType_isOp. cbv [itemNegate itemElvis]. bool_lia. Qed.

Lemma is_command_end_matches_source (t : N) : is_command_end t = src_parse_itemType_isCommandEnd (Z.of_N t).
Proof. unfold is_command_end, src_parse_itemType_isCommandEnd. cbv [itemCommandEnd]. bool_lia. Qed.

Lemma ends_term_matches_source (t : N) : ends_term t = src_parse_itemType_endsTerm (Z.of_N t).
Proof.
  unfold ends_term, src_parse_itemType_endsTerm.
  cbv [ends_term_set existsb itemNull itemBool itemInteger itemFloat itemString itemIdent itemDollarIdent itemDotIdent
       itemQuestionDotIdent itemDotIndex itemQuestionDotIndex itemRightBracket itemRightParen].
  bool_lia.
Qed.

(* ---- the two keyword tables (the generated tables are sorted by key, the source is not) ---- *)
Lemma builtin_idents_matches_source (s : bstr) :
  option_map Z.of_N (assoc_s s builtin_idents) = assoc_s s src_parse_builtinIdents.
Proof.
  apply (assoc_s_ext Z.of_N Z.eqb); [exact Z_eqb_true|]. vm_compute. reflexivity.
Qed.

Lemma arith_items_matches_source (s : bstr) :
  option_map Z.of_N (assoc_s s arith_items) = assoc_s s src_parse_arithmeticItemsBySymbol.
Proof.
  apply (assoc_s_ext Z.of_N Z.eqb); [exact Z_eqb_true|]. vm_compute. reflexivity.
Qed.

(* what the lexer model does with them: m[k] with the comma-ok form *)
Lemma builtin_lookup_matches_source (s : bstr) :
  match assoc_s s builtin_idents with Some t => (Z.of_N t, true) | None => (0%Z, false) end =
  (go_lookup_s s src_parse_builtinIdents 0%Z, go_has_s s src_parse_builtinIdents).
Proof.
  unfold go_lookup_s, go_has_s. rewrite <- builtin_idents_matches_source.
  destruct (assoc_s s builtin_idents); reflexivity.
Qed.

Lemma arith_lookup_matches_source (s : bstr) :
  match assoc_s s arith_items with Some t => (Z.of_N t, true) | None => (0%Z, false) end =
  (go_lookup_s s src_parse_arithmeticItemsBySymbol 0%Z, go_has_s s src_parse_arithmeticItemsBySymbol).
Proof.
  unfold go_lookup_s, go_has_s. rewrite <- arith_items_matches_source.
  destruct (assoc_s s arith_items); reflexivity.
Qed.
