(* Consumption lemmas for the command parsers of Model/Parser.v (the procedures that call
   parseExpr and itemList), then itemList itself: with a budget of mu + 2 it returns a tree or an
   error -- never CFuel, never a run-time panic -- and conserves kap. *)
From Soy Require Import Model.Bytes Model.Outcome Model.Ast Model.Token Model.NumLit Model.RawText Model.ExprParser Model.Parser.
From Soy Require Import Generated.Tables Proofs.RawTextProofs Proofs.ParserMeasure Proofs.ExprTotal Proofs.ParserBase Proofs.ParserLeaf.
From Coq Require Import ZifyBool Lia.
Open Scope N_scope.

Definition is_switch (n : node) : Prop := match n with NSwitch _ _ _ => True | _ => False end.

Lemma special_char_nz x v : assoc x parser_special_chars = Some v -> x <> 0.
Proof. intros H E. rewrite E in H. vm_compute in H. discriminate. Qed.
Lemma implicit_print_nz x : one_of x parser_implicit_print = true -> x <> 0.
Proof. intros H E. rewrite E in H. vm_compute in H. discriminate. Qed.

(* closes [until_ok u] (0 is not in u) for a closed until-list u: each member is compared with 0 by computation *)
Ltac uok := unfold until_ok; let H := fresh in intro H; cbn [In] in H;
            repeat (destruct H as [H|H]; [vm_compute in H; discriminate|]); exact H.
(* the item type of an until-list is not 0 *)
Ltac unz Hin Hnz := match type of Hin with In (t_typ ?t) ?u =>
  assert (Hnz : t_typ t <> 0) by (let X := fresh "X" in intro X; rewrite X in Hin; cbn [In] in Hin;
    repeat (destruct Hin as [Hin|Hin]; [vm_compute in Hin; discriminate|]); exact Hin) end.

(* facts after a backup that follows the next recorded in R *)
Ltac cbk R := match type of R with ParserBase.cnrel ?a ?b ?c ?s ?t ?s1 =>
  match goal with Hs : ParserBase.cinv a b c s |- _ =>
    let A := fresh "A" in let B := fresh "B" in let C := fresh "C" in
    destruct (c_backup_after a b c s t s1 Hs R) as (A & B & C) end end.
(* facts after backup2(t1) that follows the next recorded in R; E : t_typ t1 = <constant> *)
Ltac cbk2 R E := match type of R with ParserBase.cnrel ?a ?b ?c ?s ?t ?s1 =>
  match type of E with t_typ ?t1 = _ =>
  match goal with Hs : ParserBase.cinv a b c s, Hk : (p_peek (c_p s) <= 1)%nat,
                  Hc : t1 = cur_tok (c_p s), Hw : ParserMeasure.twf _ t1 |- _ =>
    let Hnz := fresh "Hnz" in let Hne := fresh "Hne" in
    assert (Hnz : t_typ t1 <> 0) by (rewrite E; vm_compute; intro; discriminate);
    assert (Hne : t_typ t1 <> pit_EOF) by (rewrite E; vm_compute; intro; discriminate);
    let A := fresh "A" in let B := fresh "B" in let C := fresh "C" in
    destruct (c_backup2_rel a b c s t s1 t1 Hs Hk Hc Hnz Hne Hw R) as (A & B & C) end end end.
(* facts after a backup over the until-item itemList stopped at *)
Ltac cbnz s Hin :=
  match goal with Hs : ParserBase.cinv ?a ?b ?c s, Hk : (p_peek (c_p s) <= 1)%nat |- _ =>
   let Hnz := fresh "Hnz" in unz Hin Hnz;
   let A := fresh "A" in let B := fresh "B" in let C := fresh "C" in let En := fresh "En" in
   destruct (c_backup_nz a b c s Hs Hk Hnz) as (A & B & C & En) end.

Section Cmd.
Variable inlen : N.
Variable NT : nat.
Variable eofchk : bool.
Variable lexq : bstr -> list tok.
Variable unq : bstr -> option bstr.
Hypothesis Hlexq : forall str, Forall (ParserMeasure.twf (N.of_nat (length str))) (lexq str).

Notation cinv := (cinv inlen NT eofchk).
Notation cnrel := (cnrel inlen NT eofchk).
Notation cpost := (cpost inlen NT eofchk).
Notation twf := (twf inlen).
Notation cmu s := (mu (c_p s)).
Notation clpz s := (lpz (c_p s)).
Notation ckap s := (kap (c_p s)).
Notation cpeek s := (p_peek (c_p s)).
Notation ccur s := (cur_tok (c_p s)).
Notation pqe := (parse_quoted_expr inlen lexq parse_expr expr_fuel).

Definition wpost (until : list N) (s : cst) : node -> cst -> Prop :=
  fun _ s' => (cmu s' < cmu s)%nat /\ (cpeek s' <= 1)%nat /\ In (t_typ (ccur s')) until.

Section Level.
Variable pe : N -> cst -> cres node.
Variable w : list N -> cst -> cres node.
Variable L : nat.
Hypothesis Hpe : forall prec s b, cinv s -> ckap s = b -> (cmu s < L)%nat ->
  cpost b (fun _ s' => (cmu s' < cmu s)%nat) (pe prec s).
Hypothesis Hw : forall until s b, until_ok until -> cinv s -> ckap s = b -> (cmu s < L)%nat ->
  cpost b (wpost until s) (w until s).
Variable lf : nat.
Hypothesis Hlf : (L <= lf)%nat.

(* cpe / cw: a call of the section's expression parser pe (Hpe) / of its item-list parser w (Hw), bound to the rest of the procedure by
   cpost_bind; n, s1 name what the call returns, H its postcondition *)
Ltac cpe n s1 H :=
  nzs; eapply cpost_bind; [apply Hpe; [solve [auto]|unfold kap in *; lia|lia]|]; intros n s1 ?Hi ?Hb H; cbn beta in H.
Ltac cw n s1 H :=
  nzs; eapply cpost_bind; [apply Hw; [uok|solve [auto]|unfold kap in *; lia|lia]|]; intros n s1 ?Hi ?Hb H;
  unfold wpost in H; cbn beta in H.

Lemma directive_args_ok : forall f args s b,
  cinv s -> ckap s = b -> (cmu s < L)%nat -> (cmu s < f)%nat ->
  cpost b (fun _ s' => (cmu s' <= cmu s)%nat) (directive_args pe f args s).
Proof.
  induction f as [|f IH]; intros args s b Hi Hb Hm Hf; [lia|].
  cbn [directive_args]. cnext nx s1 R. dcn R.
  tcase2 (tis nx pit_Colon || tis nx pit_Comma) Hnz.
  - cpe a s2 H2. cuse IH.
  - cbk R. cfin.
Qed.

Lemma cmd_print_loop_ok : forall f pos expr dirs s b,
  cinv s -> ckap s = b -> (cmu s < L)%nat -> (cmu s < f)%nat ->
  cpost b (fun _ s' => (cmu s' <= cmu s)%nat) (cmd_print_loop inlen pe lf f pos expr dirs s).
Proof.
  induction f as [|f IH]; intros pos expr dirs s b Hi Hb Hm Hf; [lia|].
  cbn [cmd_print_loop]. cnext tk s1 R. dcn R.
  tcase tk pit_RightDelim E. { tnz E Hnz. cfin. }
  tcase tk pit_Pipe E2.
  - tnz E2 Hnz. cexpect id s2 H2.
    eapply cpost_bind; [apply directive_args_ok; auto; lia|]. intros args s3 Hi3 Hb3 H3. cbn beta in H3.
    cuse IH.
  - cerr.
Qed.

Lemma cmd_print_ok token s b :
  cinv s -> ckap s = b -> (cmu s < L)%nat ->
  cpost b (fun _ s' => (cmu s' <= cmu s)%nat) (cmd_print inlen pe lf token s).
Proof.
  intros Hi Hb Hm. unfold cmd_print. cpe e s1 H1. cuse cmd_print_loop_ok.
Qed.

Lemma parse_let_ok token s b :
  cinv s -> ckap s = b -> (cmu s < L)%nat ->
  cpost b (fun _ s' => (cmu s' <= cmu s)%nat) (parse_let inlen unq pe w lf token s).
Proof.
  intros Hi Hb Hm. unfold parse_let. cexpect name s1 H1. destruct H1 as (M1 & K1 & C1 & T1 & W1 & S1).
  assert (Hlen : (1 <= length (t_val name))%nat) by (apply (twf_len1p inlen); auto).
  apply c_peek_step; auto. intros pk s2 Hi2 Hm2 Hl2 (s3 & En & Rn). cbn beta.
  tcase pk pit_Colon E.
  - tnz E Hnz. rewrite En. cbn [cbind]. pose proof (cnrel_inv _ _ _ _ _ _ Hi2 Rn) as Hi3. dcn Rn.
    cpe e s4 H4.
    destruct (tail1_ok (t_val name) s4 Hlen) as (nm & Et). rewrite Et. cbn [cbind].
    cexpect t6 s6 H6. cfin.
  - eapply cpost_bind; [apply attrs_loop_ok; auto; unfold kap in *; lia|]. intros at_ s3' Hi3 Hb3 H3. cbn beta in H3.
    cnext nx s4 R4. dcn R4.
    tcase nx pit_RightDelim E2.
    + tnz E2 Hnz. cw body s5 H5.
      destruct (tail1_ok (t_val name) s5 Hlen) as (nm & Et). rewrite Et. cbn [cbind].
      cexpect t7 s7 H7. cfin.
    + cerr.
Qed.

Lemma parse_css_ok token s b :
  cinv s -> ckap s = b -> (cmu s < L)%nat ->
  cpost b (fun _ s' => (cmu s' <= cmu s)%nat) (parse_css inlen lexq parse_expr expr_fuel token s).
Proof.
  intros Hi Hb Hm. unfold parse_css. cexpect cmd s1 H1. cexpect t2 s2 H2.
  destruct (last_index_of 44 (t_val cmd)); [|cfin].
  eapply cpost_bind; [apply parse_quoted_expr_post; auto|]. intros e s3 Hi3 Hb3 H3. cbn beta in H3.
  rewrite <- H3 in *. cfin.
Qed.

Lemma orphan_text_step {B} b (Q : B -> cst -> Prop) : forall f s0 initial s k,
  cinv s0 -> ckap s0 = b -> cnrel s0 initial s -> cinv s -> (cmu s0 < f)%nat -> (cmu s0 < lf)%nat ->
  (forall sp tk s', cinv sp -> ckap sp = b -> (cmu sp <= cmu s0)%nat -> cnrel sp tk s' -> cinv s' -> cpost b Q (k tk s')) ->
  cpost b Q (cbind (orphan_text inlen lf f initial s) k).
Proof.
  induction f as [|f IH]; intros s0 initial s k Hi0 Hb R Hi Hf Hlf' K; [lia|].
  cbn [orphan_text]. dcn R.
  tcase initial pit_Text E.
  - tnz E Hnz. destruct (rawtext_never_crashes (t_val initial) true true) as (o & Eo). rewrite Eo.
    destruct o as [|c o].
    + rewrite cbind_assoc. apply next_non_comment_step; auto; unfold kap in *; try lia.
      intros sp tk s' A1 B1 C1 D1 E1. apply (IH sp); auto; try lia.
      intros sp2 tk2 s2 A2 B2 C2 D2 E2. apply (K sp2); auto; lia.
    + eapply cpost_bind with (Q1 := fun _ _ => False); [cerr|intros; contradiction].
  - cbn [cbind]. apply (K s0); auto.
Qed.

Lemma param_attr_form_ok rec params initial key0 s6 b m :
  (forall ps s b', cinv s -> ckap s = b' -> (cmu s < m)%nat ->
     cpost b' (fun _ s' => (cmu s' <= cmu s)%nat) (rec ps s)) ->
  cinv s6 -> ckap s6 = b -> (cmu s6 < L)%nat -> (cmu s6 <= m)%nat ->
  cpost b (fun _ s' => (cmu s' <= cmu s6)%nat)
        (param_attr_form inlen lexq unq parse_expr expr_fuel w lf rec params initial key0 s6).
Proof.
  intros Hrec Hi Hb Hm Hmm. unfold param_attr_form.
  eapply cpost_bind; [apply attrs_loop_ok; auto; lia|]. intros attrs s7 Hi7 Hb7 H7. cbn beta in H7.
  eapply cpost_bind with (Q1 := fun _ s8 => s8 = s7).
  { destruct key0; [destruct (attr k_key attrs); [cfin|cerr]|cfin]. }
  intros key s8 Hi8 Hb8 H8. cbn beta in H8. subst s8.
  destruct (attr k_value attrs).
  - eapply cpost_bind; [apply parse_quoted_expr_post; auto|]. intros v s9 Hi9 Hb9 H9. cbn beta in H9.
    cexpect t10 s10 H10. rewrite H9 in *.
    cuse Hrec.
  - cexpect t9 s9 H9. cw v s10 H10. cexpect t11 s11 H11. cuse Hrec.
Qed.

Lemma call_params_loop_ok : forall f params s b,
  cinv s -> ckap s = b -> (cmu s < L)%nat -> (cmu s < f)%nat ->
  cpost b (fun _ s' => (cmu s' <= cmu s)%nat)
        (call_params_loop inlen lexq unq parse_expr expr_fuel pe w lf f params s).
Proof.
  induction f as [|f IH]; intros params s b Hi Hb Hm Hf; [lia|].
  cbn [call_params_loop].
  apply next_non_comment_step; auto; try lia. intros sp0 i0 s1 A0 B0 C0 D0 E0.
  apply (orphan_text_step b _ lf sp0); auto; try lia. intros sp initial s2 A1 B1 C1 R2 Hi2. cbn beta.
  dcn R2.
  tcase initial pit_LeftDelim E; cbn [negb]; [|cerr].
  tnz E Hnz. cnext cmd s3 R3. dcn R3.
  tcase cmd pit_CallEnd E3.
  { cbk2 R3 E. cfin. }
  tcase cmd pit_Param E4; cbn [negb]; [|cerr].
  tnz E4 Hnz4. cexpect first s4 H4. destruct H4 as (M4 & K4 & C4 & T4 & W4 & S4).
  cnext tk s5 R5. dcn R5.
  tcase tk pit_Colon E5.
  { tnz E5 Hnz5. cpe v s6 H6. cexpect t7 s7 H7. cuse IH. }
  tcase tk pit_RightDelim E6.
  { tnz E6 Hnz6. cw v s6 H6. cexpect t7 s7 H7. cuse IH. }
  assert (Hrec : forall ps s' b', cinv s' -> ckap s' = b' -> (cmu s' < cmu s3)%nat ->
             cpost b' (fun _ s'' => (cmu s'' <= cmu s')%nat)
               (call_params_loop inlen lexq unq parse_expr expr_fuel pe w lf f ps s')).
  { intros ps s' b' X1 X2 X3. apply IH; auto; lia. }
  tcase tk pit_Ident E7.
  { cbk R5.
    eapply cpost_weaken; [apply (param_attr_form_ok _ _ _ _ _ _ (cmu s3) Hrec); auto; unfold kap in *; lia|]; intros; cbn beta in *; lia. }
  tcase tk pit_Equals E8.
  { cbk2 R5 T4.
    eapply cpost_weaken; [apply (param_attr_form_ok _ _ _ _ _ _ (cmu s3) Hrec); auto; unfold kap in *; lia|]; intros; cbn beta in *; lia. }
  cerr.
Qed.

Lemma parse_call_ok token s b :
  cinv s -> ckap s = b -> (cmu s < L)%nat ->
  cpost b (fun _ s' => (cmu s' <= cmu s)%nat)
        (parse_call inlen lexq unq parse_expr expr_fuel pe w lf token s).
Proof.
  intros Hi Hb Hm. unfold parse_call.
  eapply cpost_bind; [apply call_name_ok; auto; lia|]. intros name0 s1 Hi1 Hb1 H1. cbn beta in H1.
  eapply cpost_bind; [apply attrs_loop_ok; auto; lia|]. intros attrs s2 Hi2 Hb2 H2. cbn beta in H2.
  cbv zeta.
  destruct (match name0 with [] => attr_or_empty k_name attrs | _ :: _ => name0 end); [cerr|].
  eapply cpost_bind with (Q1 := fun _ s3 => c_p s3 = c_p s2).
  { destruct (attr k_data attrs); [|cfin]. destruct (bstr_eqb _ _); [cfin|].
    eapply cpost_bind; [apply parse_quoted_expr_post; auto|]. intros e s3 Hi3 Hb3 H3. cbn beta in H3.
    rewrite <- H3 in *. cfin. }
  intros ad s3 Hi3 Hb3 H3. cbn beta in H3.
  cnext tk s4 R4. dcn R4. rewrite H3 in *.
  tcase tk pit_RightDelimEnd E. { tnz E Hnz. cfin. }
  tcase tk pit_RightDelim E2; [|cerr].
  tnz E2 Hnz.
  eapply cpost_bind; [apply call_params_loop_ok; auto; unfold kap in *; lia|]. intros body s5 Hi5 Hb5 H5. cbn beta in H5.
  cexpect t6 s6 H6. cexpect t7 s7 H7. cexpect t8 s8 H8. cfin.
Qed.

Lemma case_loop_ok : forall f token values s b,
  cinv s -> ckap s = b -> (cmu s < L)%nat -> (cmu s < f)%nat ->
  cpost b (fun _ s' => (cmu s' <= cmu s)%nat) (case_loop inlen pe w f token values s).
Proof.
  induction f as [|f IH]; intros token values s b Hi Hb Hm Hf; [lia|].
  cbn [case_loop].
  eapply cpost_bind with (Q1 := fun _ s1 => (cmu s1 <= cmu s)%nat).
  { destruct (tis token pit_Default); [cfin|]. cpe v s0 H0. cfin. }
  intros values1 s1 Hi1 Hb1 H1. cbn beta in H1.
  cnext tk s2 R2. dcn R2.
  tcase tk pit_Comma E. { tnz E Hnz. cuse IH. }
  tcase tk pit_RightDelim E2; [|cerr].
  tnz E2 Hnz. cw body s3 H3. destruct H3 as (M3 & K3 & I3).
  cbnz s3 I3. cfin.
Qed.

Lemma switch_loop_ok : forall f pos endt value cases s b,
  endt <> 0 -> cinv s -> ckap s = b -> (cmu s < L)%nat -> (cmu s < f)%nat ->
  cpost b (fun n s' => (cmu s' <= cmu s)%nat /\ is_switch n)
        (switch_loop inlen pe w lf f pos endt value cases s).
Proof.
  induction f as [|f IH]; intros pos endt value cases s b He Hi Hb Hm Hf; [lia|].
  cbn [switch_loop]. cnext tk s1 R. dcn R.
  tcase tk pit_LeftDelim E1.
  { tnz E1 Hnz. cuse IH. }
  tcase tk pit_Text E2.
  { tnz E2 Hnz. destruct (all_space (t_val tk)); [|cerr].
    cuse IH. }
  tcase2 (tis tk pit_Case || tis tk pit_Default) Hnz.
  { destruct (last_is_default cases); [cerr|].
    eapply cpost_bind; [apply case_loop_ok; auto; unfold kap in *; lia|]. intros c s2 Hi2 Hb2 H2. cbn beta in H2.
    cuse IH. }
  tcase tk endt E4.
  { assert (Hnz : t_typ tk <> 0) by congruence. cexpect t2 s2 H2. cfin. exact I. }
  tcase tk pit_Comment E5.
  { tnz E5 Hnz. cuse IH. }
  cerr.
Qed.

Lemma parse_switch_ok token endt s b :
  endt <> 0 -> cinv s -> ckap s = b -> (cmu s < L)%nat ->
  cpost b (fun n s' => (cmu s' <= cmu s)%nat /\ is_switch n) (parse_switch inlen pe w lf token endt s).
Proof.
  intros He Hi Hb Hm. unfold parse_switch. cpe v s1 H1. cexpect t2 s2 H2.
  cuse switch_loop_ok.
Qed.

Lemma plural_cases_ok : forall cs cases dflt s b,
  cinv s -> ckap s = b -> cpost b (fun _ s' => s' = s) (plural_cases inlen cs cases dflt s).
Proof.
  induction cs as [|c cs IH]; intros cases dflt s b Hi Hb; cbn [plural_cases]; [cfin|].
  destruct c; auto.
  destruct values as [|v0 vs]; auto.
  destruct v0; try cerr. destruct vs; [auto|cerr].
Qed.

Lemma parse_plural_ok tk s b :
  cinv s -> twf tk -> ckap s = b -> (cmu s < L)%nat ->
  cpost b (fun _ s' => (cmu s' <= cmu s)%nat) (parse_plural inlen pe w lf tk s).
Proof.
  intros Hi Htw Hb Hm. unfold parse_plural. destruct (negb (c_inmsg s)); [cerr|].
  eapply cpost_bind; [apply parse_switch_ok; auto; nzc|]. intros sw s1 Hi1 Hb1 (H1 & Hsw). cbn beta.
  destruct sw; try contradiction.
  eapply cpost_bind; [apply plural_cases_ok; auto|]. intros cd s2 Hi2 Hb2 H2. cbn beta in H2. subst s2.
  destruct (snd cd); [cfin|cerr].
Qed.

Lemma parse_for_ok token s b :
  cinv s -> ckap s = b -> (cmu s < L)%nat ->
  cpost b (fun _ s' => (cmu s' <= cmu s)%nat) (parse_for inlen pe w token s).
Proof.
  intros Hi Hb Hm. unfold parse_for. cexpect vartoken s1 H1. destruct H1 as (M1 & K1 & C1 & T1 & W1 & S1).
  assert (Hlen : (1 <= length (t_val vartoken))%nat) by (apply (twf_len1p inlen); auto).
  cexpect intoken s2 H2. destruct H2 as (M2 & K2 & C2 & T2 & W2 & S2).
  destruct (negb (bstr_eqb (t_val intoken) k_in)); [cerr|].
  cpe coll s3 H3. cexpect t4 s4 H4. cw body s5 H5. destruct H5 as (M5 & K5 & I5).
  cbnz s5 I5. rewrite En. cbn [cbind].
  eapply cpost_bind with (Q1 := fun _ s7 => (cmu s7 <= cmu s5)%nat).
  { destruct (tis (ccur s5) pit_Ifempty); [|cfin]. cexpect t8 s8 H8. cw b2 s9 H9. cfin. }
  intros ie s7 Hi7 Hb7 H7. cbn beta in H7.
  cexpect t8 s8 H8.
  destruct (tail1_ok (t_val vartoken) s8 Hlen) as (nm & Et). rewrite Et. cbn [cbind]. cfin.
Qed.

Lemma if_loop_ok : forall f pos conds is_else s b,
  cinv s -> ckap s = b -> (cmu s < L)%nat -> (cmu s < f)%nat ->
  cpost b (fun _ s' => (cmu s' <= cmu s)%nat) (if_loop inlen pe w f pos conds is_else s).
Proof.
  induction f as [|f IH]; intros pos conds is_else s b Hi Hb Hm Hf; [lia|].
  cbn [if_loop].
  eapply cpost_bind with (Q1 := fun _ s1 => (cmu s1 <= cmu s)%nat).
  { destruct is_else; [cfin|]. cpe c s0 H0. cfin. }
  intros cond s1 Hi1 Hb1 H1. cbn beta in H1.
  cexpect t2 s2 H2. cw body s3 H3. destruct H3 as (M3 & K3 & I3). cbv zeta.
  cbnz s3 I3. rewrite En. cbn [cbind].
  destruct (tis (ccur s3) pit_Elseif); [cuse IH|].
  destruct (tis (ccur s3) pit_Else); [cuse IH|].
  destruct (tis (ccur s3) pit_IfEnd); [|cuse IH].
  cexpect t5 s5 H5. cfin.
Qed.

Lemma parse_msg_ok token s b :
  cinv s -> ckap s = b -> (cmu s < L)%nat ->
  cpost b (fun _ s' => (cmu s' <= cmu s)%nat) (parse_msg inlen unq w lf token s).
Proof.
  intros Hi Hb Hm. unfold parse_msg.
  eapply cpost_bind; [apply attrs_loop_ok; auto; lia|]. intros attrs s1 Hi1 Hb1 H1. cbn beta in H1.
  destruct (attr k_desc attrs); [|cerr].
  cexpect t2 s2 H2.
  assert (Hi2' : cinv (set_inmsg s2 true)) by (unfold ParserBase.cinv in *; cbn [c_p c_scans set_inmsg]; auto).
  eapply cpost_bind; [apply (Hw u_msg (set_inmsg s2 true)); [uok|auto|cbn [c_p set_inmsg]; unfold kap in *; lia|cbn [c_p set_inmsg]; lia]|].
  intros contents s3 Hi3 Hb3 H3. unfold wpost in H3. cbn [c_p set_inmsg] in H3. cbv zeta.
  assert (Hi4 : cinv (set_inmsg s3 false)) by (unfold ParserBase.cinv in *; cbn [c_p c_scans set_inmsg]; auto).
  destruct (existsb is_plural _ && negb _).
  - apply c_errorf_post; auto. cbn [c_p set_inmsg]. unfold kap in *; lia.
  - eapply cpost_bind; [apply c_expect_post; [auto|nzc|cbn [c_p set_inmsg]; unfold kap in *; lia]|].
    intros t5 s5 Hi5 Hb5 H5. cbn [c_p set_inmsg] in H5. cfin.
Qed.

Lemma parse_template_ok token s b :
  cinv s -> ckap s = b -> (cmu s < L)%nat ->
  cpost b (fun _ s' => (cmu s' <= cmu s)%nat) (parse_template inlen unq w lf token s).
Proof.
  intros Hi Hb Hm. unfold parse_template. cexpect id s1 H1.
  eapply cpost_bind; [apply attrs_loop_ok; auto; lia|]. intros attrs s2 Hi2 Hb2 H2. cbn beta in H2.
  eapply cpost_bind; [apply parse_autoescape_ok; auto|]. intros ae s3 Hi3 Hb3 H3. cbn beta in H3. subst s3.
  eapply cpost_bind; [apply bool_attr_ok; auto|]. intros pr s4 Hi4 Hb4 H4. cbn beta in H4. subst s4.
  cexpect t5 s5 H5. cw body s6 H6. cbv zeta. cexpect t7 s7 H7. cfin.
Qed.

Lemma parse_header_param_ok token s b :
  cinv s -> ckap s = b -> (cmu s < L)%nat ->
  cpost b (fun _ s' => (cmu s' <= cmu s)%nat) (parse_header_param inlen pe token s).
Proof.
  intros Hi Hb Hm. unfold parse_header_param. cexpect name s1 H1. cexpect t2 s2 H2. cexpect typ s3 H3.
  cnext tk s4 R4. dcn R4.
  eapply cpost_bind with (Q1 := fun _ s5 => (cmu s5 <= cmu s3)%nat).
  { tcase tk pit_Equals E.
    - tnz E Hnz. cpe e s0 H0. cfin.
    - cbk R4. cfin. }
  intros dv s5 Hi5 Hb5 H5. cbn beta in H5. cexpect t6 s6 H6. cfin.
Qed.

Lemma begin_tag_ok s b :
  cinv s -> ckap s = b -> (cmu s < L)%nat ->
  cpost b (fun _ s' => (cmu s' <= cmu s)%nat)
        (begin_tag inlen lexq unq parse_expr expr_fuel pe w lf s).
Proof.
  intros Hi Hb Hm. unfold begin_tag. cnext token s1 R. dcn R. cbv zeta.
  assert (Some' : forall (r : cres node), (t_typ token <> 0) ->
            cpost b (fun _ s' => (cmu s' <= cmu s1)%nat) r ->
            cpost b (fun _ s' => (cmu s' <= cmu s)%nat) (cbind r (fun n s' => COk (Some n) s'))).
  { intros r Hnz Hr. eapply cpost_bind; [exact Hr|]. intros n s' X1 X2 X3. cbn beta in X3. cfin. }
  tcase token pit_Namespace E1.
  { tnz E1 Hnz. apply Some'; auto. apply parse_namespace_ok; auto; unfold kap in *; lia. }
  tcase token pit_Template E2.
  { tnz E2 Hnz. apply Some'; auto. apply parse_template_ok; auto; unfold kap in *; lia. }
  tcase2 (tis token pit_HeaderParam || tis token pit_HeaderOptionalParam) Hnz.
  { apply Some'; auto. apply parse_header_param_ok; auto; unfold kap in *; lia. }
  tcase token pit_If E4.
  { tnz E4 Hnz. unfold notmsg. destruct (c_inmsg s1); [cerr|].
    apply Some'; auto. apply if_loop_ok; auto; unfold kap in *; lia. }
  tcase token pit_Msg E5.
  { tnz E5 Hnz. unfold notmsg. destruct (c_inmsg s1); [cerr|].
    apply Some'; auto. apply parse_msg_ok; auto; unfold kap in *; lia. }
  tcase token pit_Plural E6.
  { tnz E6 Hnz. apply Some'; auto. apply parse_plural_ok; auto; unfold kap in *; lia. }
  tcase2 (tis token pit_Foreach || tis token pit_For) Hnz.
  { unfold notmsg. destruct (c_inmsg s1); [cerr|].
    apply Some'; auto. apply parse_for_ok; auto; unfold kap in *; lia. }
  tcase token pit_Switch E8.
  { tnz E8 Hnz. unfold notmsg. destruct (c_inmsg s1); [cerr|].
    apply Some'; auto.
    eapply cpost_weaken; [apply parse_switch_ok; auto; [nzc|unfold kap in *; lia|lia]|]. intros a s' X1 X2 (X3 & X4); auto. }
  tcase token pit_Call E9.
  { tnz E9 Hnz. apply Some'; auto. apply parse_call_ok; auto; unfold kap in *; lia. }
  tcase token pit_Literal E10.
  { tnz E10 Hnz. cexpect t2 s2 H2. cexpect lit s3 H3. cexpect t4 s4 H4. cexpect t5 s5 H5. cexpect t6 s6 H6. cfin. }
  tcase token pit_Css E11.
  { tnz E11 Hnz. apply Some'; auto. apply parse_css_ok; auto; unfold kap in *; lia. }
  tcase token pit_Log E12.
  { tnz E12 Hnz. cexpect t2 s2 H2. cw body s3 H3. cexpect t4 s4 H4. cfin. }
  tcase token pit_Debugger E13.
  { tnz E13 Hnz. cexpect t2 s2 H2. cfin. }
  tcase token pit_Let E14.
  { tnz E14 Hnz. apply Some'; auto. apply parse_let_ok; auto; unfold kap in *; lia. }
  tcase token pit_Alias E15.
  { tnz E15 Hnz. eapply cpost_bind; [apply parse_alias_ok; auto; unfold kap in *; lia|].
    intros u s2 Hi2 Hb2 H2. cbn beta in H2. cfin. }
  destruct (assoc (t_typ token) parser_special_chars) eqn:E16.
  { apply special_char_nz in E16. cexpect t2 s2 H2. cfin. }
  destruct (one_of (t_typ token) parser_implicit_print) eqn:E17.
  { apply implicit_print_nz in E17.
    cbk R.
    eapply cpost_bind; [apply cmd_print_ok; auto; unfold kap in *; lia|].
    intros n s' X1 X2 X3. cbn beta in X3. cfin. }
  tcase token pit_Print E18.
  { tnz E18 Hnz. apply Some'; auto. apply cmd_print_ok; auto; unfold kap in *; lia. }
  cerr.
Qed.

Lemma text_or_tag_ok until s token0 s1 b :
  until_ok until -> cinv s -> ckap s = b -> cnrel s token0 s1 -> cinv s1 -> (cmu s <= L)%nat -> (cmu s < lf)%nat ->
  cpost b (fun r s' => (cmu s' < cmu s)%nat /\ (snd r = true -> (cpeek s' <= 1)%nat /\ In (t_typ (ccur s')) until))
        (text_or_tag inlen lexq unq parse_expr expr_fuel pe w lf token0 until s1).
Proof.
  intros Hu Hi Hb R0 Hi1 Hm Hf. unfold text_or_tag. cbv zeta.
  apply (skip_comments_step inlen NT eofchk b _ lf s); auto.
  intros sp token s1' A1 B1 C1 R1 Hi1'. cbn beta. dcn R1.
  destruct (one_of (t_typ token) until) eqn:Eu.
  { pose proof (one_of_nz _ _ Hu Eu) as Hnz. apply one_of_in in Eu.
    cfin. intros _. split; [auto|]. rewrite <- Rcur. auto. }
  cnext token2 s2 R2. dcn R2.
  destruct (tis token pit_LeftDelim && one_of (t_typ token2) until) eqn:E2.
  { assert (E2a : t_typ token = pit_LeftDelim) by (unfold tis in E2; lia).
    assert (E2b : one_of (t_typ token2) until = true) by (destruct (one_of (t_typ token2) until); auto; lia).
    tnz E2a Hnz. pose proof (one_of_nz _ _ Hu E2b) as Hnz2. apply one_of_in in E2b.
    cfin. intros _. split; [auto|]. rewrite <- Rcur0. auto. }
  clear E2. destruct (c_backup_after inlen NT eofchk _ _ _ Hi1' R2) as (A3 & B3 & C3).
  tcase token pit_Text E3.
  { tnz E3 Hnz.
    apply text_run_step; auto; unfold kap in *; try lia.
    intros txt sp2 nx s4 A4 B4 C4 R4 Hi4. cbn beta. cbn [fst snd].
    cbk R4.
    destruct (rawtext_never_crashes txt (tis token0 pit_Comment) (tis nx pit_Comment)) as (o & Eo). rewrite Eo.
    destruct o; cfin; intros X; discriminate. }
  tcase token pit_LeftDelim E4.
  { tnz E4 Hnz. eapply cpost_bind; [apply begin_tag_ok; auto; unfold kap in *; lia|].
    intros n s4 X1 X2 X3. cbn beta in X3. cfin. intros X; discriminate. }
  tcase token pit_SoyDocStart E5.
  { tnz E5 Hnz. eapply cpost_bind; [apply soydoc_loop_ok; auto; unfold kap in *; lia|].
    intros n s4 X1 X2 X3. cbn beta in X3. cfin. intros X; discriminate. }
  cerr.
Qed.

Lemma item_list_loop_ok : forall f until pos acc s b,
  until_ok until -> cinv s -> ckap s = b -> (cmu s <= L)%nat -> (cmu s < lf)%nat -> (cmu s < f)%nat ->
  cpost b (wpost until s)
        (item_list_loop inlen lexq unq parse_expr expr_fuel pe w lf f until pos acc s).
Proof.
  induction f as [|f IH]; intros unt pos acc s b Hu Hi Hb Hm Hlf' Hf; [lia|].
  cbn [item_list_loop]. cnext token s1 R. cbv zeta.
  eapply cpost_bind; [apply (text_or_tag_ok unt s token s1); auto|].
  intros r s2 Hi2 Hb2 (H2 & H2'). cbn beta.
  destruct (snd r) eqn:Er.
  - destruct (H2' eq_refl) as (X1 & X2). unfold wpost. cfin.
  - eapply cpost_weaken; [apply IH; auto; lia|]. unfold wpost. intros a s' X1 X2 (X3 & X4 & X5). repeat split; auto; lia.
Qed.
End Level.

(* itemList: a budget of mu + 2 suffices *)
Theorem item_list_ok : forall fuel until s b,
  until_ok until -> cinv s -> ckap s = b -> (cmu s + 2 <= fuel)%nat ->
  cpost b (wpost until s) (item_list inlen lexq unq parse_expr expr_fuel fuel until s).
Proof.
  induction fuel as [|f IH]; intros unt s b Hu Hi Hb Hf; [lia|].
  cbn [item_list].
  apply item_list_loop_ok with (L := Nat.pred f); auto; try lia.
  - intros prec s0 b0 X1 X2 X3.
    eapply cpost_weaken; [apply lift_expr_post; auto; lia|]. intros a s' Y1 Y2 (Y3 & Y4); auto.
  - intros u s0 b0 X0 X1 X2 X3. apply IH; auto; lia.
Qed.

End Cmd.
