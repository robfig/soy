(* C17 at command level, the list that ends at EOF: parse.SoyFile calls itemList with the until set {EOF}, and the
   list then ends AT the item EOF, not at "{" followed by an until item (Proofs/CmdRoundtripRules.v: Loop_halt).
   The final state is not described (the list ends the file): the text and tag rules and the chain over the
   commands of a body are those of the main induction at the postcondition True.
   [parse_body_roundtrip_eof]: the items of a well-formed body followed by an item of type EOF are read, by
   itemList with until = {EOF} from any state, inside a {msg} or not (flag m), as that body at some position. *)
From Soy Require Import Model.Bytes Model.Outcome Model.Num Model.Ast Model.Token Model.RawText Model.ExprParser Model.Parser Generated.Tables
  Model.AstPrint Model.AstPrintCmd Spec.ExprSyntax Spec.CmdSyntax Proofs.ExprParserRules Proofs.CmdRoundtripBase Proofs.CmdRoundtripRules
  Proofs.CmdRoundtripMsg Proofs.CmdRoundtrip.
From Coq Require Import Lia.
Open Scope N_scope.

Section Eof.
Variable ns : bstr.
Variable al : list (bstr * bstr).
Variable inlen : N.
Variable lexq : bstr -> list tok.
Variable unq : bstr -> option bstr.
Variable efuel : list tok -> nat.
Hypothesis efuel_ok : forall ts e rest, Parses 0 ts e rest -> exists p', parse_expr (efuel ts) 0 (pst_init ts) = POk e p'.
Hypothesis unq_quote : forall s q, go_quote s = Some q -> unq q = Some s.

Notation IL g := (item_list inlen lexq unq parse_expr efuel g).
Notation Loop := (Loop ns al inlen lexq unq efuel).
Notation nameok := (nameok ns al).
Notation wf_body := (wf_body lexq nameok).

Lemma LoopE_halt m until pos acc e rest :
  t_typ e <> pit_Comment -> one_of (t_typ e) until = true ->
  Loop m (fun _ => True) until pos acc (e :: rest) (NList (pos_or pos e) acc).
Proof.
  intros Hc Hu s p sc H0 Hm. apply runs_Slf. cbn [item_list_loop].
  run run_next as p1 [H1 _]. unfold text_or_tag. run (run_skip_comments Hc) as ? <-. rewrite Hu. cbn [cbind snd].
  apply runs_ret. exact I.
Qed.

Theorem parse_body_roundtrip_eof m q nodes e rest :
  wf_body m (NList q nodes) -> t_typ e = pit_EOF ->
  exists pos', Run ns al m (fun _ => True) (fun g _ s => IL g u_eof s) (body_toks (NList q nodes) ++ e :: rest) (NList pos' nodes).
Proof.
  intros (Hp & Hw & Hadj) He. eexists. cbn [body_toks]. apply IL_of_Loop.
  refine (loop_chain ns al inlen lexq unq efuel m _ u_eof e rest eq_refl _ _ _ nodes [] None Hw Hadj _); try (rewrite He; discriminate).
  - intros pos acc. apply LoopE_halt; rewrite He; [discriminate | reflexivity].
  - intros c _. exact (proj2 (body_cmd_ok ns al inlen lexq unq efuel efuel_ok unq_quote (csize c)) m c (le_n _)).
Qed.

End Eof.
