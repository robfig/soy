(* C06: the extended model of Model/InterpJson.v is a conservative extension of the
   shared walker Model/Interp.v: EVERY successful run of [walk] (outcome Ok) is reproduced exactly --
   same value, same final state, hence same Write calls -- by [walk_xj].  ([walk] answers
   OutOfModel where the extended model computes: escapeJsString, json, round with digits; and an
   error where json prints a value whose String() panics; in both cases there is nothing to agree
   with.)  Proof: the relational walker principle of Proofs/InterpRel.v with the relation
   "the right-hand run is not Ok, or both runs are equal", plus the two intercepted nodes:
   {print} (value-level directive loop against the String()-image loop) and round(). *)
From Coq Require Import Lia ZifyBool.
From Soy Require Import Model.Bytes Model.Utf8 Model.Num Model.Values Model.Outcome Model.Ast
  Model.Escape Model.Directives Model.JsEscape Model.Print Generated.Tables Model.Interp Model.InterpSafety
  Model.InterpJson Spec.Safety Proofs.ValueProofs Proofs.InterpLogic Proofs.InterpGuard Proofs.InterpRel
  Proofs.BytesBase Proofs.SafetyMono.
Open Scope N_scope.

Definition not_ok {A} (o : outcome A) : Prop := forall x, o <> Ok x.

(* [m1] (extended) against [m2] (Interp), possibly with results of different types related by R *)
Definition agok2 {A B} (R : A -> B -> Prop) (m1 : M A) (m2 : M B) : Prop :=
  forall st, not_ok (fst (m2 st)) \/
             exists a b, m1 st = (Ok a, snd (m2 st)) /\ fst (m2 st) = Ok b /\ R a b.
Definition agok {A} (m1 m2 : M A) : Prop :=
  forall st, not_ok (fst (m2 st)) \/ m1 st = m2 st.

Lemma not_ok_cases {A} (o : outcome A) : not_ok o \/ exists x, o = Ok x.
Proof. destruct o; try (left; intros y; discriminate). right. eexists. reflexivity. Qed.

Lemma agok_of_2 {A} (m1 m2 : M A) : agok2 eq m1 m2 -> agok m1 m2.
Proof.
  intros H st. destruct (H st) as [Hn|(a & c & E1 & E2 & ->)]; [left; exact Hn|].
  right. rewrite E1. destruct (m2 st) as [r s]. cbn [fst snd] in *. subst r. reflexivity.
Qed.

Lemma agok_to_2 {A} (m1 m2 : M A) : agok m1 m2 -> agok2 eq m1 m2.
Proof.
  intros H st. destruct (H st) as [Hn|He]; [left; exact Hn|].
  destruct (not_ok_cases (fst (m2 st))) as [Hn|[x Hx]]; [left; exact Hn|].
  right. exists x, x. rewrite He. destruct (m2 st) as [r s]. cbn [fst snd] in *. subst r. repeat split.
Qed.

Lemma agok_refl {A} (m : M A) : agok m m.
Proof. intros st. right. reflexivity. Qed.

Lemma not_ok_bind {A B} (m : M A) (f : A -> M B) st : not_ok (fst (m st)) -> not_ok (fst (mbind m f st)).
Proof.
  intros Hn. unfold mbind. destruct (m st) as [[x|e|e| | | ] s]; cbn [fst] in *;
    try (intros y; discriminate). exfalso. eapply Hn. reflexivity.
Qed.

Lemma agok2_bind2 {A B C D} (R : A -> B -> Prop) (S : C -> D -> Prop)
      (m1 : M A) (m2 : M B) (f1 : A -> M C) (f2 : B -> M D) :
  agok2 R m1 m2 -> (forall a b, R a b -> agok2 S (f1 a) (f2 b)) -> agok2 S (mbind m1 f1) (mbind m2 f2).
Proof.
  intros Hm Hf st. destruct (Hm st) as [Hn|(a & c & E1 & E2 & HR)].
  - left. apply not_ok_bind. exact Hn.
  - unfold mbind. rewrite E1. destruct (m2 st) as [r s]. cbn [fst snd] in *. subst r. apply Hf. exact HR.
Qed.

Lemma agok_bind {A B} (m1 m2 : M A) (f1 f2 : A -> M B) :
  agok m1 m2 -> (forall x, agok (f1 x) (f2 x)) -> agok (mbind m1 f1) (mbind m2 f2).
Proof.
  intros Hm Hf. apply agok_of_2. apply (agok2_bind2 eq eq); [apply agok_to_2; exact Hm|].
  intros a c <-. apply agok_to_2. apply Hf.
Qed.

Lemma agok2_bind {A B C} (R : A -> B -> Prop) (m1 : M A) (m2 : M B) (f1 : A -> M C) (f2 : B -> M C) :
  agok2 R m1 m2 -> (forall a b, R a b -> agok (f1 a) (f2 b)) -> agok (mbind m1 f1) (mbind m2 f2).
Proof.
  intros Hm Hf. apply agok_of_2. apply (agok2_bind2 R eq); [exact Hm|].
  intros a c HR. apply agok_to_2. apply Hf. exact HR.
Qed.

Lemma agok_fail_r {A} (m1 : M A) e : agok m1 (fail e).
Proof. intros st. left. intros y. discriminate. Qed.
Lemma agok2_fail_r {A B} (R : A -> B -> Prop) (m1 : M A) e : agok2 R m1 (fail e).
Proof. intros st. left. intros y. discriminate. Qed.

Lemma not_ok_fault {A} (o : outcome A) : not_ok o -> exists e, o = of_fault e.
Proof.
  intros H. destruct (classify o) as [x|e] eqn:E; [apply classify_ok in E; destruct (H x E)|].
  exists e. apply classify_fault. exact E.
Qed.
Lemma not_ok_of_fault {A} e : not_ok (@of_fault A e).
Proof. destruct e; intros y; discriminate. Qed.

Lemma agok_eval (w1 w2 : node -> M value) e : agok (w1 e) (w2 e) -> agok (eval w1 e) (eval w2 e).
Proof.
  intros H st. rewrite !eval_eq. destruct (H st) as [Hn|He]; [left | right; rewrite He; reflexivity].
  destruct (not_ok_fault _ Hn) as [f ->]. rewrite classify_of_fault. apply not_ok_of_fault.
Qed.

Lemma agok_logic : walker_logic_r (fun _ => true) (@agok) (@agok value) (fun _ _ => True).
Proof.
  constructor; intros; try apply agok_refl.
  - intros st. rewrite <- H, <- H0. apply H1.
  - apply agok_bind; assumption.
  - intros st. apply (H (mode st) st).
  - intros st. apply (H (ctx st) st).
  - apply agok_bind; [apply agok_refl|]. intros _.
    apply agok_bind; [assumption|]. intros _. apply agok_refl.
  - apply agok_eval. assumption.
  - (* block *)
    intros st. rewrite !render_block_eq. destruct (H (buf_pushed st)) as [Hn|He]; [left | right; rewrite He; reflexivity].
    destruct (not_ok_fault _ Hn) as [f ->]. rewrite classify_of_fault. apply not_ok_of_fault.
  - (* enter *)
    intros st. rewrite !call_enter_eq. cbn zeta. destruct (H (entered st callee cd)) as [Hn|He]; [left | right; rewrite He; reflexivity].
    destruct (not_ok_fault _ Hn) as [f ->]. rewrite classify_of_fault. apply not_ok_of_fault.
Qed.

Lemma walk_body_agok cf (w1 w2 : node -> M value) :
  (forall n, agok (w1 n) (w2 n)) -> forall n, agok (walk_body cf w1 n) (walk_body cf w2 n).
Proof. intros Hw. apply (walk_body_rel cf _ _ agok_logic); exact Hw. Qed.


Lemma agok_eval_list (w1 w2 : node -> M value) es :
  (forall n, agok (w1 n) (w2 n)) -> agok (eval_list w1 es) (eval_list w2 es).
Proof.
  intros Hw. induction es as [|e r IH]; cbn [eval_list]; [apply agok_refl|].
  apply agok_bind; [apply agok_eval; apply Hw|]. intros v.
  apply agok_bind; [exact IH|]. intros vs. apply agok_refl.
Qed.

(* {print}: the value-level directive loop reproduces every successful String()-image loop *)

Definition dconv (d : bstr * list value) : bstr * list darg := (fst d, map darg_of (snd d)).

Lemma value_string_str s : value_string (VStr s) = Ok s.
Proof. reflexivity. Qed.

Lemma truncate_short s n e : (Z.of_nat (length s) <=? n)%Z = true -> truncate s n e = Ok s.
Proof. intros H. unfold truncate. rewrite H. reflexivity. Qed.

(* the two directives the regenerated table binds to functions Model/Directives.v does not model *)
Lemma apply_fn_unmodelled fn args s :
  Directives.fn_is fn fn_NoAutoescape = false -> Directives.fn_is fn fn_EscapeHtml = false ->
  Directives.fn_is fn fn_ChangeNewlineToBr = false -> Directives.fn_is fn fn_EscapeUri = false ->
  Directives.fn_is fn fn_InsertWordBreaks = false -> Directives.fn_is fn fn_Truncate = false ->
  apply_fn fn args s = OutOfModel.
Proof. intros H1 H2 H3 H4 H5 H6. unfold apply_fn. rewrite H1, H2, H3, H4, H5, H6. reflexivity. Qed.

Lemma lookup_json_fn : exists arglens cancel nilapply fn,
  lookup_directive n_json = Some (arglens, (cancel, (nilapply, fn))) /\ forall args s, apply_fn fn args s = OutOfModel.
Proof. do 4 eexists. split; [vm_compute; reflexivity|]. intros args s. apply apply_fn_unmodelled; vm_compute; reflexivity. Qed.

Lemma lookup_escjs_fn : exists arglens cancel nilapply fn,
  lookup_directive n_escapeJsString = Some (arglens, (cancel, (nilapply, fn))) /\ forall args s, apply_fn fn args s = OutOfModel.
Proof. do 4 eexists. split; [vm_compute; reflexivity|]. intros args s. apply apply_fn_unmodelled; vm_compute; reflexivity. Qed.

Lemma apply_fn_truncate args s :
  apply_fn fn_Truncate args s =
  match args with
  | [DInt n] => truncate s n true
  | [DInt n; DBool e] => truncate s n e
  | [DInt n; _] => if (Z.of_nat (length s) <=? n)%Z then Ok s else Err Directives.e_type
  | _ => Err Directives.e_type
  end.
Proof. reflexivity. Qed.

Lemma apply_fn_truncate_keeps fn args s s1 :
  truncate_keeps fn args s = true -> apply_fn fn args s = Ok s1 -> s1 = s.
Proof.
  unfold truncate_keeps. intros Hk Ha. apply andb_prop in Hk as [Hfn Hlen].
  apply bstr_eqb_true in Hfn. subst fn. rewrite apply_fn_truncate in Ha.
  destruct args as [|[n| |] [|a2 [|? ?]]]; try discriminate.
  - rewrite truncate_short in Ha by exact Hlen. congruence.
  - destruct a2; try (rewrite truncate_short in Ha by exact Hlen); try rewrite Hlen in Ha; congruence.
  - destruct a2; discriminate.
Qed.

Lemma apply_dirs_x_agrees : forall dsv v s esc s' esc',
  value_string v = Ok s ->
  apply_directives (map dconv dsv) s esc = Ok (s', esc') ->
  exists v', apply_dirs_hook x_dirs dsv (Some v) esc = Ok (Some v', esc') /\ value_string v' = Ok s'.
Proof.
  induction dsv as [|[name args] rest IH]; intros v s esc s' esc' Hv H; cbn [map apply_directives] in H.
  - injection H as <- <-. exists v. split; [reflexivity | exact Hv].
  - cbn [dconv fst snd] in H. cbn [apply_dirs_hook].
    unfold x_dirs.
    destruct (lookup_directive name) as [[arglens [cancel [nilapply fn]]]|] eqn:Hl; [|discriminate].
    destruct (negb (check_num_args arglens (length (map darg_of args)))) eqn:Har; [discriminate|].
    rewrite map_length in Har.
    destruct nilapply; [discriminate|].
    destruct (apply_fn fn (map darg_of args) s) as [s1| | | | |] eqn:Ha; try discriminate. cbn [bind] in H.
    destruct (bstr_eqb name n_json) eqn:Ej.
    { exfalso. apply bstr_eqb_true in Ej. subst name.
      destruct lookup_json_fn as (a1 & c1 & n1 & f1 & Hl1 & Hoom). rewrite Hl in Hl1. injection Hl1 as _ _ _ ->.
      rewrite Hoom in Ha. discriminate. }
    destruct (bstr_eqb name n_escapeJsString) eqn:Ee.
    { exfalso. apply bstr_eqb_true in Ee. subst name.
      destruct lookup_escjs_fn as (a1 & c1 & n1 & f1 & Hl1 & Hoom). rewrite Hl in Hl1. injection Hl1 as _ _ _ ->.
      rewrite Hoom in Ha. discriminate. }
    cbn [de_arities de_cancel de_impl]. rewrite Har.
    destruct (Directives.fn_is fn fn_NoAutoescape) eqn:Eno.
    + (* the value is handed through; apply_fn returned the image unchanged *)
      assert (s1 = s) by (unfold apply_fn in Ha; rewrite Eno in Ha; congruence). subst s1.
      cbn [bind]. apply (IH v s _ s' esc' Hv H).
    + rewrite Hv. cbn [bind]. rewrite Ha. cbn [bind].
      destruct (truncate_keeps fn (map darg_of args) s) eqn:Ek.
      * pose proof (apply_fn_truncate_keeps _ _ _ _ Ek Ha) as ->. apply (IH v s _ s' esc' Hv H).
      * apply (IH (VStr s1) s1 _ s' esc' (value_string_str s1) H).
Qed.

Lemma print_writes_x_agrees mode dsv v s ws :
  value_string v = Ok s -> print_writes mode (map dconv dsv) s = Ok ws ->
  print_writes_hook x_dirs mode dsv v = Ok ws.
Proof.
  intros Hv H. unfold print_writes in H. unfold print_writes_hook.
  destruct (apply_directives (map dconv dsv) s (negb (mode =? 2))) as [[s' esc']| | | | |] eqn:Ha; try discriminate.
  destruct (apply_dirs_x_agrees dsv v s _ s' esc' Hv Ha) as (v' & E1 & E2).
  rewrite E1. cbn [bind] in H |- *. rewrite E2. cbn [bind]. exact H.
Qed.

Lemma lift_bind {A B} (o : outcome A) (f : A -> M B) st :
  (x <-- lift o ;;; f x) st =
  match o with
  | Ok a => f a st | Err e => (Err e, st) | Crash e => (Crash e, st)
  | Diverge => (Diverge, st) | OutOfFuel => (OutOfFuel, st) | OutOfModel => (OutOfModel, st)
  end.
Proof. unfold mbind, lift. destruct o; reflexivity. Qed.
Lemma get_bind {B} (f : mstate -> M B) st : (s <-- get ;;; f s) st = f st st.
Proof. reflexivity. Qed.

Section PrintNode.
Variable cf : cfg.
Variables w1 w2 : node -> M value.
Hypothesis Hw : forall n, agok (w1 n) (w2 n).

Lemma x_dirs_arities name arglens rest :
  lookup_directive name = Some (arglens, rest) -> exists de, x_dirs name = Some de /\ de_arities de = arglens.
Proof.
  intros Hl. unfold x_dirs. rewrite Hl. destruct rest as [cancel [nilapply fn]].
  destruct (bstr_eqb name n_json); [eexists; split; reflexivity|].
  destruct (bstr_eqb name n_escapeJsString); eexists; split; reflexivity.
Qed.

(* [Interp.print_dirs] checks the application of each directive as it goes (two lifted pure steps the hooked loop
   does not have): when they answer, the two loops go on together *)
Lemma agok2_lift_r {A B C} (R : A -> B -> Prop) (m1 : M A) (o : outcome C) (f : C -> M B) :
  (forall x, o = Ok x -> agok2 R m1 (f x)) -> agok2 R m1 (x <-- lift o ;;; f x).
Proof.
  intros H st. rewrite lift_bind. destruct o; try (left; cbn [fst]; intros y; discriminate).
  apply H. reflexivity.
Qed.

Lemma apply_directives_noesc ds : forall s s' e, apply_directives ds s false = Ok (s', e) -> e = false.
Proof.
  induction ds as [|[name args] rest IH]; intros s s' e H; cbn [apply_directives] in H.
  - injection H as _ <-. reflexivity.
  - destruct (lookup_directive name) as [[arglens [cancel [nilapply fn]]]|]; [|discriminate].
    destruct (negb _); [discriminate|]. destruct nilapply; [discriminate|].
    destruct (apply_fn fn args s) as [s1| | | | |]; try discriminate. cbn [bind andb] in H. exact (IH _ _ _ H).
Qed.

(* the result so far: the hooked loop carries a VALUE (or nil), [Interp.print_dirs] a string value with the same image *)
Definition same_image (ov : option value) (v : value) : Prop :=
  exists v', ov = Some v' /\ forall s, value_string v = Ok s -> value_string v' = Ok s.

Lemma agok2_lift_both {A B C D} (R : A -> B -> Prop) (o1 : outcome C) (o2 : outcome D) (f1 : C -> M A) (f2 : D -> M B) :
  (forall y, o2 = Ok y -> exists x, o1 = Ok x /\ agok2 R (f1 x) (f2 y)) ->
  agok2 R (x <-- lift o1 ;;; f1 x) (y <-- lift o2 ;;; f2 y).
Proof.
  intros H st. rewrite (lift_bind o2). destruct o2 as [y| | | | |]; try (left; cbn [fst]; intros z; discriminate).
  destruct (H y eq_refl) as (x & -> & Hf). rewrite (lift_bind (Ok x)). apply Hf.
Qed.

Lemma print_dirs_agok l : forall ov v, same_image ov v ->
  agok2 (fun dsv ds => ds = map dconv dsv) (print_dirs_hook cf x_dirs w1 l ov) (print_dirs cf w2 l v).
Proof.
  induction l as [|d r IH]; intros ov v Him; cbn [print_dirs_hook print_dirs].
  - intros st. right. do 2 eexists. split; [reflexivity|]. split; [reflexivity|].
    rewrite map_map. reflexivity.
  - destruct d; try apply agok2_fail_r.
    destruct (lookup_directive name) as [[arglens rest]|] eqn:Hl; [|apply agok2_fail_r].
    destruct (x_dirs_arities _ _ _ Hl) as (de & Hde & Har). rewrite Hde, Har.
    destruct (negb (check_num_args arglens (length args))); [apply agok2_fail_r|].
    apply (agok2_bind2 eq); [apply agok_to_2; apply agok_eval_list; exact Hw|]. intros vs ? <-.
    apply agok2_lift_r. intros s Hs.
    destruct Him as (v' & -> & Hv'). specialize (Hv' s Hs).
    apply agok2_lift_both. intros ws Hws.
    unfold print_writes in Hws.
    destruct (apply_directives [(name, map darg_of vs)] s (negb (2 =? 2))) as [[s' esc']| | | | |] eqn:Ha; try discriminate.
    change (negb (2 =? 2)) with false in Ha.
    pose proof (apply_directives_noesc _ _ _ _ Ha) as ->.
    cbn [bind] in Hws. injection Hws as <-.
    destruct (apply_dirs_x_agrees [(name, vs)] v' s false s' false Hv' Ha) as (v'' & E1 & E2).
    exists (Some v'', false). split; [exact E1|]. cbn [fst].
    apply (agok2_bind2 (fun dsv ds => ds = map dconv dsv)).
    + apply IH. exists v''. split; [reflexivity|]. intros s0 Hs0.
      cbn [concat_b] in Hs0. rewrite app_nil_r in Hs0. rewrite value_string_str in Hs0. injection Hs0 as <-. exact E2.
    + intros dsv ds ->. intros st. right. do 2 eexists. split; [reflexivity|]. split; [reflexivity|]. reflexivity.
Qed.

Lemma print_tail_agok v dsv :
  agok (st <-- get ;;; ws <-- lift (print_writes_hook x_dirs (mode st) dsv v) ;;; _ <-- write_all ws ;;; ret VUndef)
       (s <-- lift (value_string v) ;;; st <-- get ;;; ws <-- lift (print_writes (mode st) (map dconv dsv) s) ;;;
        _ <-- write_all ws ;;; ret VUndef).
Proof.
  intros st. rewrite get_bind. rewrite (lift_bind (value_string v)).
  destruct (value_string v) as [s| | | | |] eqn:Hv; try (left; intros y; discriminate).
  rewrite get_bind. rewrite (lift_bind (print_writes (mode st) (map dconv dsv) s)).
  destruct (print_writes (mode st) (map dconv dsv) s) as [ws| | | | |] eqn:Hp; try (left; intros y; discriminate).
  rewrite (lift_bind (print_writes_hook x_dirs (mode st) dsv v)).
  rewrite (print_writes_x_agrees _ _ _ _ _ Hv Hp). right. reflexivity.
Qed.

Lemma print_node_agok p arg dirs :
  agok (walk_body_hook cf x_funcs x_dirs w1 (NPrint p arg dirs)) (walk_body cf w2 (NPrint p arg dirs)).
Proof.
  cbn [walk_body_hook]. unfold walk_body. cbn [walk_node pos_of].
  apply agok_bind; [apply agok_refl|]. intros _.
  unfold print_hook. apply agok_bind; [apply Hw|]. intros v.
  assert (Hrest : agok (ds <-- print_dirs_hook cf x_dirs w1 dirs (Some v) ;;;
                        st <-- get ;;; ws <-- lift (print_writes_hook x_dirs (mode st) ds v) ;;; _ <-- write_all ws ;;; ret VUndef)
                       (ds <-- print_dirs cf w2 dirs v ;;;
                        s <-- lift (value_string v) ;;; st <-- get ;;; ws <-- lift (print_writes (mode st) ds s) ;;;
                        _ <-- write_all ws ;;; ret VUndef)).
  { apply (agok2_bind (fun dsv ds => ds = map dconv dsv)).
    { apply print_dirs_agok. exists v. split; [reflexivity|]. intros s Hs. exact Hs. }
    intros dsv ds ->. apply print_tail_agok. }
  destruct v; try exact Hrest. apply agok_refl.
Qed.
End PrintNode.

Lemma af_round_eq vs :
  apply_func n_round vs =
  match vs with
  | [v] =>
      x <- to_float v ;;
      match fl_add x (if fl_isneg x && negb (fl_is_zero x) then fl_neg half else half) with
      | Some y => match fl_trunc_Z y with Some z => Ok (FVal (VInt (wrap64 z))) | None => OutOfModel end
      | None => OutOfModel
      end
  | [v; VInt d] =>
      x <- to_float v ;;
      if (d =? 0)%Z then
        match fl_add x (if fl_isneg x && negb (fl_is_zero x) then fl_neg half else half) with
        | Some y => match fl_trunc_Z y with Some z => Ok (FVal (VInt (wrap64 z))) | None => OutOfModel end
        | None => OutOfModel
        end
      else OutOfModel
  | [_; _] => Err e_type
  | _ => Err e_func
  end.
Proof. reflexivity. Qed.

Lemma round_x_agrees vs r : apply_func n_round vs = Ok r -> exists v, r = FVal v /\ round_x vs = Ok v.
Proof.
  rewrite af_round_eq. unfold round_x, round1.
  destruct vs as [|v [|v2 rest]]; [discriminate | |].
  - destruct (to_float v) as [x| | | | |]; cbn [bind]; try discriminate.
    destruct (fl_add _ _); [|discriminate]. destruct (fl_trunc_Z _); [|discriminate].
    intros H. injection H as <-. eexists. split; reflexivity.
  - destruct v2, rest; try discriminate.
    destruct (to_float v) as [x| | | | |]; cbn [bind]; try discriminate.
    destruct (z =? 0)%Z; [|discriminate].
    destruct (fl_add _ _); [|discriminate]. destruct (fl_trunc_Z _); [|discriminate].
    intros H. injection H as <-. eexists. split; reflexivity.
Qed.

Lemma round_arities : func_arities n_round = Some [1; 2].
Proof. vm_compute. reflexivity. Qed.

Lemma round_node_agok cf (w1 w2 : node -> M value) p args :
  (forall n, agok (w1 n) (w2 n)) ->
  agok (walk_body_hook cf x_funcs x_dirs w1 (NFunc p n_round args)) (walk_body cf w2 (NFunc p n_round args)).
Proof.
  intros Hw. cbn [walk_body_hook].
  change (is_loop_func n_round) with false. cbn iota.
  change (x_funcs n_round) with (Some {| fh_arities := [1; 2]; fh_apply := round_x |}). cbn iota.
  unfold walk_body. cbn [walk_node pos_of].
  change (Interp.fn_is n_round n_index || Interp.fn_is n_round n_isFirst || Interp.fn_is n_round n_isLast)%bool with false. cbn iota.
  apply agok_bind; [apply agok_refl|]. intros _.
  unfold hook_call, call_func. rewrite round_arities. cbn [fh_arities fh_apply].
  destruct (negb (mem (N.of_nat (length args)) [1; 2])); [apply agok_refl|].
  apply agok_bind; [apply agok_eval_list; exact Hw|]. intros vs.
  intros st. rewrite (lift_bind (apply_func n_round vs)).
  destruct (apply_func n_round vs) as [r| | | | |] eqn:Ha; try (left; intros y; discriminate).
  destruct (round_x_agrees _ _ Ha) as (v & -> & Hx). rewrite Hx. right. reflexivity.
Qed.

Lemma walk_body_x_agok cf (w1 w2 : node -> M value) :
  (forall n, agok (w1 n) (w2 n)) -> forall n, agok (walk_body_hook cf x_funcs x_dirs w1 n) (walk_body cf w2 n).
Proof.
  intros Hw n.
  pose proof (walk_body_agok cf w1 w2 Hw n) as Hdef.
  destruct n; cbn [walk_body_hook]; try exact Hdef.
  - (* NFunc *)
    destruct (is_loop_func name) eqn:El; [exact Hdef|].
    unfold x_funcs. destruct (bstr_eqb name n_round) eqn:Er; [|exact Hdef].
    apply bstr_eqb_true in Er. subst name. apply round_node_agok. exact Hw.
  - (* NPrint *) apply print_node_agok. exact Hw.
Qed.

Theorem walk_x_agok cf : forall f n, agok (walk_xj cf f n) (walk cf f n).
Proof.
  induction f as [|f IH]; intros n.
  - intros st. left. intros y. discriminate.
  - unfold walk_xj. cbn [walk_hook walk]. apply walk_body_x_agok. exact IH.
Qed.

(* every successful run of the shared walker is a run of the extended one *)
Theorem walk_x_agrees cf f n st v st' :
  walk cf f n st = (Ok v, st') -> walk_xj cf f n st = (Ok v, st').
Proof.
  intros H. destruct (walk_x_agok cf f n st) as [Hn|He].
  - rewrite H in Hn. exfalso. eapply Hn. reflexivity.
  - rewrite He. exact H.
Qed.

(* ... and every successful render is the extended model's render: same Write calls, same counters *)
Theorem render_x_agrees cf fuel name data_id data cl bl first_id :
  rr_outcome (render cf fuel name data_id data cl bl first_id) = Ok tt ->
  render_xj cf fuel name data_id data cl bl first_id = render cf fuel name data_id data cl bl first_id.
Proof.
  unfold render, render_xj, render_hook.
  destruct (find_template (r_templates (c_reg cf)) name) as [t|]; [|reflexivity].
  set (st0 := init_state _ _ _ _ _ _).
  destruct (walk cf fuel (t_node t) st0) as [r st] eqn:Hrun.
  destruct r; cbn [rr_outcome]; try discriminate.
  - intros _. fold (walk_xj cf fuel (t_node t) st0). rewrite (walk_x_agrees _ _ _ _ _ _ Hrun). reflexivity.
  - destruct (assoc_s name (r_sources (c_reg cf))); [|discriminate].
    destruct (assoc_s name (r_files (c_reg cf))); [|discriminate].
    destruct (line_number _ _); discriminate.
Qed.
