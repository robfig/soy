(* C06 for the JavaScript generator.  The budgets of Model/JsGen.v are only there to make the definitions structural:
   none of them can run out on any tree, and with enough of them the generator ANSWERS.

   - [jwalk]: a budget above the height of the tree ([Spec/SafetyJs.v jw_height]) suffices (the Go recursion of
     soyjs's walker is bounded by the nesting of the tree it walks);
   - [jmsg_children], [jfind_placeholder]: the budget [msg_size body] the model gives them suffices for every body;
   - [ns_decls]: the budget [S (length name)] suffices (every round moves to a later dot).

   The generator is gone through ONCE, for a relation [Phi k k' m1 m2] between the same visitor over two recursive calls
   [w1], [w2] that are related on every node of height at most H ([jlogic]: five rules).  Its instances: the judgement
   [jans k k' m] -- started on a scope stack of depth k, [m] ends in a value on depth k', an error or OutOfModel; never a
   crash, a divergence or an exhausted budget -- and [jnf] alone (here); "no crash, whatever the budget"
   (Proofs/SafetyJsGen.v); "more budget, same answer" (Proofs/SafetyJsMono.v). *)
From Coq Require Import Lia List.
Import ListNotations.
From Soy Require Import Model.Bytes Model.Num Model.Values Model.Outcome Model.Ast Model.Utf8 Model.JsEscape
  Generated.Tables Model.JsGen Spec.SafetyJs Proofs.JsGenInv.
Open Scope N_scope.
#[local] Arguments assoc_s {A} k l : simpl never.

Definition jnf {A} (m : J A) : Prop := forall st, m st <> OutOfFuel.

Lemma jnf_lift {A} (o : outcome A) : o <> OutOfFuel -> jnf (jlift o).
Proof. intros Ho st. unfold jlift. destruct o; try discriminate. congruence. Qed.
Lemma jnf_mod f : jnf (jmod f).
Proof. intros st. discriminate. Qed.

(* the only origin of a [Crash] is [jsc_bind] on an empty scope stack: a crash is charged to a wrong depth *)
Definition jans {A} (k k' : nat) (m : J A) : Prop :=
  forall st, match m st with
             | Ok (_, st') => length (j_scope st) = k -> length (j_scope st') = k'
             | Err _ | OutOfModel => True
             | Crash _ | Diverge => length (j_scope st) <> k
             | OutOfFuel => False
             end.

Lemma jans_jnf {A} k k' (m : J A) : jans k k' m -> jnf m.
Proof. intros H st E. specialize (H st). rewrite E in H. exact H. Qed.

Lemma jans_ret {A} k (x : A) : jans k k (jret x).
Proof. intros st H. exact H. Qed.
Lemma jans_fail {A} k k' e : jans k k' (@jfail A e).
Proof. intros st. exact I. Qed.
Lemma jans_oom {A} k k' : jans k k' (fun _ : jstate => @OutOfModel (A * jstate)).
Proof. intros st. exact I. Qed.
(* bind, knowing of the results of the first step what [R] says *)
Lemma jans_from {A B} k k1 k2 (R : A -> Prop) (m : J A) (f : A -> J B) :
  jans k k1 m -> (forall st x st', m st = Ok (x, st') -> R x) -> (forall x, R x -> jans k1 k2 (f x)) -> jans k k2 (jbind m f).
Proof.
  intros Hm HR Hf st. unfold jbind. specialize (Hm st).
  destruct (m st) as [[x st1]| | | | |] eqn:E; try exact Hm.
  specialize (Hf x (HR _ _ _ E) st1). destruct (f x st1) as [[y st2]| | | | |]; try exact Hf; intros E1; exact (Hf (Hm E1)).
Qed.
Lemma jans_bind {A B} k k1 k2 (m : J A) (f : A -> J B) : jans k k1 m -> (forall x, jans k1 k2 (f x)) -> jans k k2 (jbind m f).
Proof. intros Hm Hf. apply (jans_from k k1 k2 (fun _ => True) m f Hm); [intros; exact I | intros x _; apply Hf]. Qed.
Lemma jans_get k : jans k k jget.
Proof. intros st H. exact H. Qed.
Lemma jans_mod k k' f : (forall st, length (j_scope st) = k -> length (j_scope (f st)) = k') -> jans k k' (jmod f).
Proof. intros Hf st. exact (Hf st). Qed.
Lemma jans_lift {A} k (o : outcome A) : match o with Ok _ | Err _ | OutOfModel => True | _ => False end -> jans k k (jlift o).
Proof. intros Ho st. unfold jlift. destruct o; try destruct Ho; try exact I. intros H. exact H. Qed.
Lemma jans_emit k cs : jans k k (jemit cs).
Proof. apply jans_mod. intros st H. exact H. Qed.
Lemma jans_txt k t : jans k k (jtxt t).
Proof. apply jans_emit. Qed.

(* one step through a computation that does not call the walker *)
Ltac astep :=
  lazymatch goal with
  | |- jans _ _ (jret _) => apply jans_ret
  | |- jans _ _ (jfail _) => apply jans_fail
  | |- jans ?k _ (jbind (match _ with _ => _ end) _) => apply jans_bind with (k1 := k); [| intros ?]
  | |- jans _ _ (jbind _ _) => eapply jans_bind; [| intros ?]
  | |- jans _ _ jget => apply jans_get
  | |- jans _ _ (jemit _) => apply jans_emit
  | |- jans _ _ (jtxt _) => apply jans_txt
  | |- jans _ _ (jmod _) => apply jans_mod; intros ? E; exact E
  | |- jans _ _ (match ?x with _ => _ end) => destruct x
  | |- jans _ _ (fun _ => OutOfModel) => apply jans_oom
  end.

Lemma ans_push k : jans k (S k) jsc_push.
Proof. apply jans_mod. intros st E. exact (f_equal S E). Qed.
Lemma ans_pop k : jans (S k) k jsc_pop.
Proof.
  apply jans_mod. intros st E. change (length (tl (j_scope st)) = k).
  destruct (j_scope st) as [|f r]; [discriminate | injection E as E; exact E].
Qed.
Lemma ans_genname k v : jans k k (jsc_genname v).
Proof. intros st E. exact E. Qed.
Lemma ans_bind k v g : jans (S k) (S k) (jsc_bind v g).
Proof.
  intros st. unfold jsc_bind, jbind, jget. destruct (j_scope st) as [|f r]; [discriminate|]. intros E. exact E.
Qed.
Lemma ans_makevar k v : jans (S k) (S k) (jsc_makevar v).
Proof. unfold jsc_makevar. astep. apply ans_genname. astep. apply ans_bind. astep. Qed.
Lemma ans_push_for_range k v : jans k (S k) (jsc_push_for_range v).
Proof. intros st E. exact (f_equal S E). Qed.
Lemma ans_push_for_each k v : jans k (S k) (jsc_push_for_each v).
Proof. intros st E. exact (f_equal S E). Qed.
Lemma ans_jindent k : jans k k jindent.
Proof. unfold jindent. repeat astep. Qed.
Lemma ans_jsln k cs : jans k k (jsln cs).
Proof. unfold jsln. astep. apply ans_jindent. repeat astep. Qed.
Lemma ans_indent_inc k : jans k k indent_inc.
Proof. unfold indent_inc. astep. Qed.
Lemma ans_indent_dec k : jans k k indent_dec.
Proof. unfold indent_dec. astep. Qed.
Lemma ans_bufname k : jans k k bufname.
Proof. unfold bufname. repeat astep. Qed.
Lemma ans_lookup_var k v : jans k k (lookup_var v).
Proof. unfold lookup_var. repeat astep. Qed.
Lemma ans_note_called k key imp : jans k k (note_called key imp).
Proof. unfold note_called. repeat astep. Qed.
Lemma ans_write_raw_text k t : jans k k (write_raw_text t).
Proof. unfold write_raw_text. astep. apply ans_jindent. astep. apply ans_bufname. astep. Qed.

Ltac aknown :=
  lazymatch goal with
  | |- jans _ _ jindent => apply ans_jindent
  | |- jans _ _ (jsln _) => apply ans_jsln
  | |- jans _ _ indent_inc => apply ans_indent_inc
  | |- jans _ _ indent_dec => apply ans_indent_dec
  | |- jans _ _ bufname => apply ans_bufname
  | |- jans _ _ jsc_push => apply ans_push
  | |- jans _ _ jsc_pop => apply ans_pop
  | |- jans _ _ (jsc_makevar _) => apply ans_makevar
  | |- jans _ _ (jsc_genname _) => apply ans_genname
  | |- jans _ _ (jsc_bind _ _) => apply ans_bind
  | |- jans _ _ (lookup_var _) => apply ans_lookup_var
  | |- jans _ _ (jsc_push_for_range _) => apply ans_push_for_range
  | |- jans _ _ (jsc_push_for_each _) => apply ans_push_for_each
  | |- jans _ _ (note_called _ _) => apply ans_note_called
  | |- jans _ _ (write_raw_text _) => apply ans_write_raw_text
  end.
Ltac ago := repeat first [ aknown | astep ].

Lemma jw_hmax_cons x r : jw_hmax (x :: r) = Nat.max (jw_height x) (jw_hmax r).
Proof. reflexivity. Qed.
Lemma jw_hmap_cons k x r : jw_hmap ((k, x) :: r) = Nat.max (jw_height x) (jw_hmap r).
Proof. reflexivity. Qed.
Lemma jw_hmax_in x l : In x l -> (jw_height x <= jw_hmax l)%nat.
Proof. induction l as [|y r IH]; [intros []|]. rewrite jw_hmax_cons. intros [<-|Hi]; [lia|]. specialize (IH Hi). lia. Qed.
Lemma jw_hmax_app a c : jw_hmax (a ++ c) = Nat.max (jw_hmax a) (jw_hmax c).
Proof. induction a as [|x r IH]; [reflexivity|]. cbn [app]. rewrite !jw_hmax_cons, IH. lia. Qed.
Lemma jw_hmap_in kx l : In kx l -> (jw_height (snd kx) <= jw_hmap l)%nat.
Proof.
  induction l as [|[k y] r IH]; [intros []|]. rewrite jw_hmap_cons. intros [<-|Hi]; [cbn [snd]; lia|]. specialize (IH Hi). lia.
Qed.

(* one equation per node kind the walker descends into *)
Lemma jwh_func p nm args : jw_height (NFunc p nm args) = S (jw_hmax args). Proof. reflexivity. Qed.
Lemma jwh_listlit p l : jw_height (NListLit p l) = S (jw_hmax l). Proof. reflexivity. Qed.
Lemma jwh_maplit p l : jw_height (NMapLit p l) = S (jw_hmap l). Proof. reflexivity. Qed.
Lemma jwh_dataref p k acc : jw_height (NDataRef p k acc) = S (jw_hmax acc). Proof. reflexivity. Qed.
Lemma jwh_accexpr p ns e : jw_height (NAccExpr p ns e) = S (jw_height e). Proof. reflexivity. Qed.
Lemma jwh_list p l : jw_height (NList p l) = S (jw_hmax l). Proof. reflexivity. Qed.
Lemma jwh_print p a ds : jw_height (NPrint p a ds) = S (Nat.max (jw_height a) (jw_hmax ds)). Proof. reflexivity. Qed.
Lemma jwh_directive p nm args : jw_height (NDirective p nm args) = S (jw_hmax args). Proof. reflexivity. Qed.
Lemma jwh_if p cs : jw_height (NIf p cs) = S (jw_hmax cs). Proof. reflexivity. Qed.
Lemma jwh_ifcond p c body : jw_height (NIfCond p c body) = S (Nat.max (jw_hopt c) (jw_height body)). Proof. reflexivity. Qed.
Lemma jwh_for p v lst body ie :
  jw_height (NFor p v lst body ie) = S (Nat.max (jw_height lst) (Nat.max (jw_height body) (jw_hopt ie))).
Proof. reflexivity. Qed.
Lemma jwh_switch p v cs : jw_height (NSwitch p v cs) = S (Nat.max (jw_height v) (jw_hmax cs)). Proof. reflexivity. Qed.
Lemma jwh_switchcase p vs body : jw_height (NSwitchCase p vs body) = S (Nat.max (jw_hmax vs) (jw_height body)). Proof. reflexivity. Qed.
Lemma jwh_call p nm ad dat ps : jw_height (NCall p nm ad dat ps) = S (Nat.max (jw_hopt dat) (jw_hmax ps)). Proof. reflexivity. Qed.
Lemma jwh_paramvalue p k v : jw_height (NParamValue p k v) = S (jw_height v). Proof. reflexivity. Qed.
Lemma jwh_paramcontent p k c : jw_height (NParamContent p k c) = S (jw_height c). Proof. reflexivity. Qed.
Lemma jwh_msg p i m d body : jw_height (NMsg p i m d body) = S (jw_hmax body). Proof. reflexivity. Qed.
Lemma jwh_placeholder p nm body : jw_height (NMsgPlaceholder p nm body) = S (jw_height body). Proof. reflexivity. Qed.
Lemma jwh_plural p vn v cases dflt :
  jw_height (NMsgPlural p vn v cases dflt) = S (Nat.max (jw_height v) (Nat.max (jw_hmax cases) (jw_hmax dflt))).
Proof. reflexivity. Qed.
Lemma jwh_pluralcase p v body : jw_height (NMsgPluralCase p v body) = S (jw_hmax body). Proof. reflexivity. Qed.
Lemma jwh_global p nm v : jw_height (NGlobal p nm v) = S (jw_vdepth v). Proof. reflexivity. Qed.
Lemma jw_height_pos n : (1 <= jw_height n)%nat.
Proof. destruct n; cbn [jw_height]; apply le_n_S, Nat.le_0_l. Qed.

(* nodeFromValue: the literal built from a value is no taller than the value is deep *)
Definition jw_nov_list (p : N) : list value -> option (list node) :=
  fix go (l : list value) : option (list node) :=
    match l with
    | [] => Some []
    | x :: r => match node_of_value p x, go r with Some n, Some ns => Some (n :: ns) | _, _ => None end
    end.
Definition jw_nov_map (p : N) : list (bstr * value) -> option (list (bstr * node)) :=
  fix go (m : list (bstr * value)) : option (list (bstr * node)) :=
    match m with
    | [] => Some []
    | (k, x) :: r => match node_of_value p x, go r with Some n, Some ns => Some ((k, n) :: ns) | _, _ => None end
    end.
Lemma node_of_value_list p id l : node_of_value p (VList id l) = option_map (NListLit p) (jw_nov_list p l).
Proof. reflexivity. Qed.
Lemma node_of_value_map p id m : node_of_value p (VMap id m) = option_map (NMapLit p) (jw_nov_map p m).
Proof. reflexivity. Qed.
Lemma jw_nov_list_cons p x r :
  jw_nov_list p (x :: r) = match node_of_value p x, jw_nov_list p r with Some n, Some ns => Some (n :: ns) | _, _ => None end.
Proof. reflexivity. Qed.
Lemma jw_nov_map_cons p k x r :
  jw_nov_map p ((k, x) :: r) = match node_of_value p x, jw_nov_map p r with Some n, Some ns => Some ((k, n) :: ns) | _, _ => None end.
Proof. reflexivity. Qed.

Lemma node_of_value_height : forall v p n, node_of_value p v = Some n -> (jw_height n <= jw_vdepth v)%nat.
Proof.
  fix IH 1. intros v p n. destruct v as [| |x|z|f|s|id l|id m].
  - discriminate.
  - intros E. injection E as <-. cbn. lia.
  - intros E. injection E as <-. cbn. lia.
  - intros E. injection E as <-. cbn. lia.
  - intros E. injection E as <-. cbn. lia.
  - intros E. injection E as <-. cbn. lia.
  - rewrite node_of_value_list. cbn [jw_vdepth].
    assert (G : forall ns, jw_nov_list p l = Some ns ->
                (jw_hmax ns <= fold_right (fun x acc => Nat.max (jw_vdepth x) acc) 0%nat l)%nat).
    { induction l as [|x r IHr]; intros ns E.
      - injection E as <-. cbn. lia.
      - rewrite jw_nov_list_cons in E.
        destruct (node_of_value p x) as [nx|] eqn:Ex; [|discriminate].
        destruct (jw_nov_list p r) as [nr|] eqn:Er; [|discriminate]. injection E as <-.
        rewrite jw_hmax_cons. cbn [fold_right]. pose proof (IH x p nx Ex). pose proof (IHr nr eq_refl). lia. }
    destruct (jw_nov_list p l) as [ns|] eqn:E; cbn [option_map]; [|discriminate].
    intros E2. injection E2 as <-. rewrite jwh_listlit. pose proof (G ns eq_refl). lia.
  - rewrite node_of_value_map. cbn [jw_vdepth].
    assert (G : forall ns, jw_nov_map p m = Some ns ->
                (jw_hmap ns <= fold_right (fun kx acc => Nat.max (jw_vdepth (snd kx)) acc) 0%nat m)%nat).
    { induction m as [|[k x] r IHr]; intros ns E.
      - injection E as <-. cbn. lia.
      - rewrite jw_nov_map_cons in E.
        destruct (node_of_value p x) as [nx|] eqn:Ex; [|discriminate].
        destruct (jw_nov_map p r) as [nr|] eqn:Er; [|discriminate]. injection E as <-.
        rewrite jw_hmap_cons. cbn [fold_right snd]. pose proof (IH x p nx Ex). pose proof (IHr nr eq_refl). lia. }
    destruct (jw_nov_map p m) as [ns|] eqn:E; cbn [option_map]; [|discriminate].
    intros E2. injection E2 as <-. rewrite jwh_maplit. pose proof (G ns eq_refl). lia.
Qed.

(* sort.Strings on the keys of a map literal keeps its items *)
Lemma jw_sort_items_in {A} (l : list (bstr * A)) x : In x (sort_items l) -> In x l.
Proof.
  induction l as [|y l IH]; cbn [sort_items]; [auto|].
  set (ins := fix ins (x : bstr * A) (l : list (bstr * A)) {struct l} : list (bstr * A) :=
                match l with [] => [x] | y :: r => if bstr_leb (fst x) (fst y) then x :: l else y :: ins x r end).
  assert (G : forall z acc, In x (ins z acc) -> x = z \/ In x acc).
  { intros z acc. induction acc as [|q acc IHa]; cbn.
    - intros [->|[]]. auto.
    - destruct (bstr_leb (fst z) (fst q)); cbn.
      + intros [->|[->|Hi]]; auto.
      + intros [->|Hi]; auto. destruct (IHa Hi); auto. }
  intro H. destruct (G _ _ H) as [->|Hi]; [left; reflexivity|right; auto].
Qed.

Definition jw_msum (l : list node) : nat := fold_right (fun x acc => (nmsg_size x + acc)%nat) 0%nat l.
Lemma jw_msum_go l :
  (fix go (l : list node) : nat := match l with [] => 0%nat | x :: r => (nmsg_size x + go r)%nat end) l = jw_msum l.
Proof. induction l as [|x r IH]; [reflexivity|]. cbn [jw_msum fold_right]. fold (jw_msum r). rewrite <- IH. reflexivity. Qed.
Lemma jw_msum_cons x r : jw_msum (x :: r) = (nmsg_size x + jw_msum r)%nat.
Proof. reflexivity. Qed.
Lemma jw_msum_app a c : jw_msum (a ++ c) = (jw_msum a + jw_msum c)%nat.
Proof. induction a as [|x r IH]; [reflexivity|]. cbn [app]. rewrite !jw_msum_cons, IH. lia. Qed.
Lemma msg_size_eq l : msg_size l = S (jw_msum l).
Proof. reflexivity. Qed.
Lemma nmsg_size_plural p vn v cases dflt : nmsg_size (NMsgPlural p vn v cases dflt) = (4 + jw_msum cases + jw_msum dflt)%nat.
Proof. cbn [nmsg_size]. rewrite !jw_msum_go. reflexivity. Qed.
Lemma nmsg_size_case p v body : nmsg_size (NMsgPluralCase p v body) = (3 + jw_msum body)%nat.
Proof. cbn [nmsg_size]. rewrite jw_msum_go. reflexivity. Qed.
Lemma nmsg_size_list p l : nmsg_size (NList p l) = (2 + jw_msum l)%nat.
Proof. cbn [nmsg_size]. rewrite jw_msum_go. reflexivity. Qed.
Lemma nmsg_size_pos n : (1 <= nmsg_size n)%nat.
Proof. destruct n; try apply le_n; cbn [nmsg_size]; lia. Qed.
Lemma jw_msum_in x l : In x l -> (nmsg_size x <= jw_msum l)%nat.
Proof. induction l as [|y r IH]; [intros []|]. rewrite jw_msum_cons. intros [<-|Hi]; [lia|]. specialize (IH Hi). lia. Qed.

(* MsgNode.Placeholder: every step takes at least one unit of the queue's size; what it finds lies below the queue *)
Lemma find_placeholder_fuel : forall f q name, (jw_msum q < f)%nat -> exists r, jfind_placeholder f q name = Ok r.
Proof.
  induction f as [|f IH]; intros q name Hf; [lia|]. cbn [jfind_placeholder].
  destruct q as [|x r]; [eexists; reflexivity|]. rewrite jw_msum_cons in Hf. pose proof (nmsg_size_pos x) as Hx.
  assert (Hr : exists res, jfind_placeholder f r name = Ok res) by (apply IH; lia).
  destruct x; try exact Hr.
  - (* NList *) apply IH. rewrite nmsg_size_list in Hf. rewrite jw_msum_app. lia.
  - (* placeholder *) destruct (bstr_eqb name0 name); [eexists; reflexivity | exact Hr].
  - (* plural *) apply IH. rewrite nmsg_size_plural in Hf. rewrite !jw_msum_app, jw_msum_cons, nmsg_size_list. cbn [jw_msum fold_right]. lia.
  - (* case *) apply IH. rewrite nmsg_size_case in Hf. rewrite jw_msum_app, jw_msum_cons, nmsg_size_list. cbn [jw_msum fold_right]. lia.
Qed.

Lemma find_placeholder_height : forall f q name ph,
  jfind_placeholder f q name = Ok (Some ph) -> (S (jw_height ph) <= jw_hmax q)%nat.
Proof.
  induction f as [|f IH]; intros q name ph E; cbn [jfind_placeholder] in E; [discriminate|].
  destruct q as [|x r]; [discriminate|]. rewrite jw_hmax_cons.
  assert (Hr : jfind_placeholder f r name = Ok (Some ph) -> (S (jw_height ph) <= Nat.max (jw_height x) (jw_hmax r))%nat)
    by (intros E'; specialize (IH _ _ _ E'); lia).
  destruct x; try exact (Hr E).
  - (* NList *) specialize (IH _ _ _ E). rewrite jw_hmax_app in IH. rewrite jwh_list. lia.
  - (* placeholder *) destruct (bstr_eqb name0 name).
    + injection E as <-. rewrite jwh_placeholder. lia.
    + specialize (IH _ _ _ E). lia.
  - (* plural *) specialize (IH _ _ _ E). rewrite !jw_hmax_app, jw_hmax_cons, jwh_list in IH. rewrite jwh_plural.
    cbn [jw_hmax fold_right] in IH. fold (jw_hmax r) in IH. fold (jw_hmax cases) in IH. fold (jw_hmax default) in IH. lia.
  - (* case *) specialize (IH _ _ _ E). rewrite jw_hmax_app, jw_hmax_cons, jwh_list in IH. rewrite jwh_pluralcase.
    cbn [jw_hmax fold_right] in IH. fold (jw_hmax r) in IH. fold (jw_hmax body) in IH. lia.
Qed.

Lemma find_plural_in body var x : jfind_plural body var = Some x -> In x body.
Proof.
  induction body as [|y r IH]; cbn [jfind_plural]; [discriminate|].
  destruct y; try (intros E; right; exact (IH E)).
  destruct (bstr_eqb varname var); [intros E; injection E as <-; left; reflexivity | intros E; right; exact (IH E)].
Qed.
(* visitNamespace: every round moves past the next dot *)
Lemma find_dot_ge : forall s i j, find_dot s i = Some j -> (i <= j)%nat.
Proof.
  induction s as [|c r IH]; intros i j E; cbn [find_dot] in E; [discriminate|].
  destruct (c =? 46); [injection E as <-; lia|]. specialize (IH _ _ E). lia.
Qed.

Lemma ans_print_opens k ds : jans k k (print_opens ds).
Proof. induction ds as [|[name args] r IH]; cbn [print_opens]; [apply jans_ret|]. astep; [astep | exact IH]. Qed.

(* what a relation between two runs of a visitor has to satisfy to pass through the generator *)
Record jlogic (oof : Prop) (Phi : forall A : Type, nat -> nat -> J A -> J A -> Prop) : Prop := {
  (* a computation that does not call the walker *)
  jl_refl : forall A k k' (m : J A), jans k k' m -> Phi A k k' m m;
  jl_bind : forall A B k k1 k2 (m1 m2 : J A) (f1 f2 : A -> J B),
      Phi A k k1 m1 m2 -> (forall x, Phi B k1 k2 (f1 x) (f2 x)) -> Phi B k k2 (jbind m1 f1) (jbind m2 f2);
  (* ... whose results are known to satisfy R *)
  jl_from : forall A B k k1 k2 (R : A -> Prop) (m : J A) (f1 f2 : A -> J B),
      jans k k1 m -> (forall st x st', m st = Ok (x, st') -> R x) ->
      (forall x, R x -> Phi B k1 k2 (f1 x) (f2 x)) -> Phi B k k2 (jbind m f1) (jbind m f2);
  jl_block : forall k (w1 w2 : node -> J unit) n,
      Phi unit k k (w1 n) (w2 n) -> Phi (list chunk) k k (jblock w1 n) (jblock w2 n);
  (* whether the relation tolerates an exhausted inner budget *)
  jl_oof : oof -> forall A k k', Phi A k k' (fun _ => OutOfFuel) (fun _ => OutOfFuel)
}.
Arguments jl_refl {oof Phi}. Arguments jl_bind {oof Phi}. Arguments jl_from {oof Phi}.
Arguments jl_block {oof Phi}. Arguments jl_oof {oof Phi}.

Section Walk.
Variable o : jopts.
Variable Phi : forall A : Type, nat -> nat -> J A -> J A -> Prop.
Arguments Phi {A} _ _ _ _.
Variable oof : Prop.
Hypothesis L : jlogic oof (@Phi).

Lemma phi_ns_decls k : forall f name i, oof \/ (length name - i < f)%nat -> Phi k k (ns_decls f name i) (ns_decls f name i).
Proof.
  induction f as [|f IH]; intros name i Hf; [destruct Hf as [Ho|Hf]; [exact (jl_oof L Ho _ _ _) | lia]|].
  cbn [ns_decls]. cbv zeta. destruct (Nat.ltb_spec i (length name)) as [Hlt|Hge]; [|apply (jl_refl L), jans_ret].
  apply (jl_bind L) with (k1 := k); [apply (jl_refl L), ans_jsln|]. intros _. apply IH. destruct Hf as [Ho|Hf]; [left; exact Ho | right].
  destruct (find_dot (drop (S i) name) (S i)) as [j|] eqn:E; [apply find_dot_ge in E; lia | lia].
Qed.

(* the two recursive calls, related on the nodes of height at most H, on every non-empty scope stack *)
Variables w1 w2 : node -> J unit.
Variable H : nat.
Hypothesis Hw : forall k n, (jw_height n <= H)%nat -> Phi (S k) (S k) (w1 n) (w2 n).

(* one step through the same visitor on both sides *)
Ltac pstep :=
  lazymatch goal with
  | |- Phi _ _ ?m ?m => apply (jl_refl L); ago
  | |- Phi _ _ (w1 _) (w2 _) => apply Hw; lia
  | |- Phi _ _ (jblock w1 _) (jblock w2 _) => apply (jl_block L), Hw; lia
  | |- Phi ?k _ (jbind (match _ with _ => _ end) _) _ => apply (jl_bind L) with (k1 := k); [| intros ?]
  | |- Phi _ _ (jbind _ _) _ => eapply (jl_bind L); [| intros ?]
  | |- Phi _ _ (match ?x with _ => _ end) _ => destruct x
  end.
Ltac pgo := repeat pstep.

Lemma phi_walk_list k ns : (jw_hmax ns <= H)%nat -> Phi (S k) (S k) (jwalk_list w1 ns) (jwalk_list w2 ns).
Proof.
  induction ns as [|x r IH]; cbn [jwalk_list]; intros Hh; [pstep|]. rewrite jw_hmax_cons in Hh.
  pstep; [pstep | apply IH; lia].
Qed.

Lemma phi_list_items k first l : (jw_hmax l <= H)%nat -> Phi (S k) (S k) (list_items w1 first l) (list_items w2 first l).
Proof.
  revert first. induction l as [|x r IH]; intros first Hh; cbn [list_items]; [pstep|]. rewrite jw_hmax_cons in Hh.
  pgo. apply IH. lia.
Qed.

Lemma phi_map_items k first l : (jw_hmap l <= H)%nat -> Phi (S k) (S k) (map_items w1 first l) (map_items w2 first l).
Proof.
  revert first. induction l as [|[key x] r IH]; intros first Hh; cbn [map_items]; [pstep|]. rewrite jw_hmap_cons in Hh.
  pgo. apply IH. lia.
Qed.

Lemma jw_hmap_sort l : (jw_hmap (sort_items l) <= jw_hmap l)%nat.
Proof.
  assert (G : forall l' : list (bstr * node), (forall kx, In kx l' -> (jw_height (snd kx) <= jw_hmap l)%nat) -> (jw_hmap l' <= jw_hmap l)%nat).
  { induction l' as [|[k x] r IH]; intros Hin; [cbn; lia|]. rewrite jw_hmap_cons.
    pose proof (Hin (k, x) (or_introl eq_refl)) as H1. cbn [snd] in H1.
    assert (jw_hmap r <= jw_hmap l)%nat by (apply IH; intros kx Hi; apply Hin; right; exact Hi). lia. }
  apply G. intros kx Hi. apply jw_hmap_in. apply jw_sort_items_in. exact Hi.
Qed.

Lemma phi_jop k sym a c : (jw_height a <= H)%nat -> (jw_height c <= H)%nat -> Phi (S k) (S k) (jop w1 sym a c) (jop w2 sym a c).
Proof. intros Ha Hc. unfold jop. pgo. Qed.

Lemma phi_apply_pieces k ps args : (jw_hmax args <= H)%nat -> Phi (S k) (S k) (apply_pieces w1 ps args) (apply_pieces w2 ps args).
Proof.
  intros Hh. induction ps as [|p ps IH]; cbn [apply_pieces]; [pstep|].
  destruct p as [t|i]; [pstep; [pstep | exact IH]|].
  destruct (nth_error args i) as [a|] eqn:E; [|pstep].
  apply nth_error_In in E. pose proof (jw_hmax_in _ _ E). pstep; [pstep | exact IH].
Qed.

Lemma phi_builtin_call k name args : (jw_hmax args <= H)%nat -> Phi (S k) (S k) (builtin_call w1 name args) (builtin_call w2 name args).
Proof. intros Hh. unfold builtin_call. pstep; [pstep|]. pstep; [apply phi_list_items; exact Hh | pstep]. Qed.

Lemma phi_visit_function k name args :
  (jw_hmax args <= H)%nat -> Phi (S k) (S k) (visit_function o w1 name args) (visit_function o w2 name args).
Proof.
  intros Hh. unfold visit_function. cbv zeta.
  destruct (assoc_s name js_builtin_funcs) as [jn|].
  - pstep; [apply phi_builtin_call; exact Hh | pstep].
  - destruct (assoc_s name js_funcs) as [[lens alts]|].
    + destruct (pick_alt alts (length args)) as [ps|]; [|pstep]. pstep; [apply phi_apply_pieces; exact Hh | pstep].
    + apply (jl_refl L). destruct (_ || _); [|apply jans_fail].
      apply jans_bind with (k1 := S k); [apply jans_get | intro st]. destruct (jsc_loop _ _) as [ix lim]. ago.
Qed.

Lemma phi_dataref_access k acc : (jw_hmax acc <= S H)%nat -> forall expr closers,
  Phi (S k) (S k) (jdataref_access w1 acc expr closers) (jdataref_access w2 acc expr closers).
Proof.
  induction acc as [|a rest IH]; intros Hh expr closers; cbn [jdataref_access]; [pstep|].
  rewrite jw_hmax_cons in Hh. assert (Hr : (jw_hmax rest <= S H)%nat) by lia.
  cbv zeta. destruct a; try (apply IH; exact Hr).
  - pstep; [pstep|]. apply IH. exact Hr.
  - pstep; [pstep|]. apply IH. exact Hr.
  - rewrite jwh_accexpr in Hh. pgo. apply IH. exact Hr.
Qed.

Lemma phi_visit_dataref k key acc : (jw_hmax acc <= S H)%nat -> Phi (S k) (S k) (visit_dataref w1 key acc) (visit_dataref w2 key acc).
Proof. intros Hh. unfold visit_dataref. pstep; [pstep|]. pstep; [apply phi_dataref_access; exact Hh | pstep]. Qed.

Definition jw_kmax (kept : list (bstr * list node)) : nat :=
  fold_right (fun d acc => Nat.max (jw_hmax (snd d)) acc) 0%nat kept.
Lemma jw_kmax_app a c : jw_kmax (a ++ c) = Nat.max (jw_kmax a) (jw_kmax c).
Proof. induction a as [|x r IH]; [reflexivity|]. cbn [app jw_kmax fold_right]. fold (jw_kmax (r ++ c)). fold (jw_kmax r). rewrite IH. lia. Qed.

(* the directives kept for the closing part carry arguments of the print's own directive nodes *)
Lemma print_scan_kept dirs : forall escape kept st r st',
  print_scan o dirs escape kept st = Ok (r, st') ->
  (jw_hmax dirs <= S H)%nat -> (jw_kmax kept <= H)%nat -> (jw_kmax (snd r) <= H)%nat.
Proof.
  induction dirs as [|d ds IH]; intros escape kept st r st' E Hd Hk; cbn [print_scan] in E.
  - injection E as <- _. exact Hk.
  - rewrite jw_hmax_cons in Hd. destruct d; try discriminate. rewrite jwh_directive in Hd.
    destruct (assoc_s name js_directives) as [[jn cancel]|]; [|discriminate]. cbv zeta in E.
    destruct (bstr_eqb name n_id || bstr_eqb name n_noAutoescape).
    + eapply IH; [exact E | lia | exact Hk].
    + unfold jbind in E at 1.
      destruct (note_called name (fmt_chunks (fmt_directive (o_fmt o)) jn) st) as [[u st1]| | | | |]; try discriminate.
      eapply IH; [exact E | lia |].
      rewrite jw_kmax_app. cbn [jw_kmax fold_right snd].
      destruct (bstr_eqb name n_changeNewlineToBr || bstr_eqb name n_insertWordBreaks).
      * rewrite jw_kmax_app. cbn [jw_kmax fold_right snd jw_hmax]. lia.
      * lia.
Qed.

Lemma ans_print_scan k dirs : forall escape kept, jans k k (print_scan o dirs escape kept).
Proof.
  induction dirs as [|d r IH]; intros escape kept; cbn [print_scan]; [apply jans_ret|].
  destruct d; try apply jans_oom.
  destruct (assoc_s name js_directives) as [[jn cancel]|]; [|apply jans_fail]. cbv zeta.
  destruct (bstr_eqb name n_id || bstr_eqb name n_noAutoescape); [apply IH|].
  astep; [aknown | apply IH].
Qed.

Lemma phi_print_args k args : (jw_hmax args <= H)%nat -> Phi (S k) (S k) (print_args w1 args) (print_args w2 args).
Proof.
  induction args as [|a r IH]; intros Hh; cbn [print_args]; [pstep|]. rewrite jw_hmax_cons in Hh.
  pgo. apply IH. lia.
Qed.

Lemma phi_print_closes k ds : (jw_kmax ds <= H)%nat -> Phi (S k) (S k) (print_closes w1 ds) (print_closes w2 ds).
Proof.
  induction ds as [|[name args] r IH]; intros Hh; cbn [print_closes]; [pstep|].
  cbn [jw_kmax fold_right snd] in Hh. fold (jw_kmax r) in Hh.
  pstep; [apply phi_print_args; lia|]. pgo. apply IH. lia.
Qed.

Lemma phi_visit_print k arg dirs :
  (jw_height arg <= H)%nat -> (jw_hmax dirs <= S H)%nat -> Phi (S k) (S k) (visit_print o w1 arg dirs) (visit_print o w2 arg dirs).
Proof.
  intros Ha Hd. unfold visit_print. pstep; [pstep|].
  apply (jl_from L) with (k1 := S k) (R := fun r => (jw_kmax (snd r) <= H)%nat).
  - apply ans_print_scan.
  - intros st r st' E. exact (print_scan_kept dirs _ _ _ _ _ E Hd (Nat.le_0_l H)).
  - intros [escape kept] Hk. cbn [snd] in Hk. cbv zeta.
    assert (Hk' : (jw_kmax (if (escape =? 2)%N then kept else kept ++ [(n_escapeHtml, [])]) <= H)%nat).
    { destruct (escape =? 2); [exact Hk|]. rewrite jw_kmax_app. cbn [jw_kmax fold_right snd jw_hmax]. lia. }
    pstep; [pstep|]. pstep; [pstep|]. pstep; [pstep|]. pstep; [apply (jl_refl L), ans_print_opens|]. pstep; [pstep|].
    pstep; [apply phi_print_closes; exact Hk' | pstep].
Qed.

Lemma phi_call_params k ps : (jw_hmax ps <= S H)%nat -> forall first acc,
  Phi (S k) (S k) (jcall_params w1 first ps acc) (jcall_params w2 first ps acc).
Proof.
  induction ps as [|p r IH]; intros Hh first acc; cbn [jcall_params]; [pstep|].
  rewrite jw_hmax_cons in Hh. assert (Hr : (jw_hmax r <= S H)%nat) by lia.
  cbv zeta. destruct p; try (apply IH; exact Hr).
  - rewrite jwh_paramvalue in Hh. pgo. apply IH. exact Hr.
  - rewrite jwh_paramcontent in Hh. pgo. apply IH. exact Hr.
Qed.

Lemma phi_visit_call k name alldata data params :
  (jw_hopt data <= H)%nat -> (jw_hmax params <= S H)%nat ->
  Phi (S k) (S k) (visit_call o w1 name alldata data params) (visit_call o w2 name alldata data params).
Proof.
  intros Hd Hp. unfold visit_call. apply (jl_bind L) with (k1 := S k).
  - destruct data as [d|]; [cbn [jw_hopt] in Hd|]; pstep.
  - intros d0. apply (jl_bind L) with (k1 := S k); [|intros d1; cbv zeta; pstep].
    destruct params as [|p0 pr]; [pstep|]. pstep; [apply phi_call_params; exact Hp | pstep].
Qed.

Lemma phi_if_conds k cs : (jw_hmax cs <= S H)%nat -> forall first, Phi (S k) (S k) (jif_conds w1 first cs) (jif_conds w2 first cs).
Proof.
  induction cs as [|c r IH]; intros Hh first; cbn [jif_conds]; [pstep|].
  rewrite jw_hmax_cons in Hh. destruct c; try solve [pstep]. rewrite jwh_ifcond in Hh.
  pstep; [pstep|]. apply (jl_bind L) with (k1 := S k); [destruct cond as [c0|]; [cbn [jw_hopt] in Hh|]; pgo | intros _].
  pgo. apply IH. lia.
Qed.

Lemma phi_visit_loop k body ie vd item vlen vidx : (jw_height body <= H)%nat -> (jw_hopt ie <= H)%nat ->
  Phi (S (S k)) (S k) (visit_loop w1 body ie vd item vlen vidx) (visit_loop w2 body ie vd item vlen vidx).
Proof. intros Hb Hi. unfold visit_loop. destruct ie as [e|]; cbn [jw_hopt] in Hi; pgo. Qed.

Lemma phi_visit_for_range k var args body ie :
  (1 <= H)%nat -> (jw_hmax args <= H)%nat -> (jw_height body <= H)%nat -> (jw_hopt ie <= H)%nat ->
  Phi (S k) (S k) (visit_for_range w1 var args body ie) (visit_for_range w2 var args body ie).
Proof.
  intros H1 Ha Hb Hi. unfold visit_for_range.
  pose proof (H1 : (jw_height (NInt 0 0) <= H)%nat). pose proof (H1 : (jw_height (NInt 0 1) <= H)%nat).
  destruct args as [|a1 [|a2 [|a3 [|a4 r]]]]; try solve [pstep];
    repeat rewrite jw_hmax_cons in Ha;
    (pstep; [pstep|]; pstep; [pstep|]; pstep; [pstep|];
     eapply (jl_bind L); [pstep | intros [[[[vd vinit] vstep] vlen] vidx]];
     pstep; [pstep|]; pstep; [pstep|]; pstep; [pstep|]; apply phi_visit_loop; assumption).
Qed.

Lemma phi_visit_foreach k var lst body ie :
  (jw_height lst <= H)%nat -> (jw_height body <= H)%nat -> (jw_hopt ie <= H)%nat ->
  Phi (S k) (S k) (visit_foreach w1 var lst body ie) (visit_foreach w2 var lst body ie).
Proof.
  intros Hl Hb Hi. unfold visit_foreach. pstep; [pstep|].
  eapply (jl_bind L); [pstep | intros [[[vd vlist] vlen] vidx]]. pstep; [pstep|]. pstep; [pstep|]. apply phi_visit_loop; assumption.
Qed.

Lemma phi_case_values k vs : (jw_hmax vs <= H)%nat -> Phi (S k) (S k) (case_values w1 vs) (case_values w2 vs).
Proof.
  induction vs as [|v r IH]; intros Hh; cbn [case_values]; [pstep|]. rewrite jw_hmax_cons in Hh.
  pgo. apply IH. lia.
Qed.

Lemma phi_switch_cases k cs : (jw_hmax cs <= S H)%nat -> Phi (S k) (S k) (jswitch_cases w1 cs) (jswitch_cases w2 cs).
Proof.
  induction cs as [|c r IH]; intros Hh; cbn [jswitch_cases]; [pstep|].
  rewrite jw_hmax_cons in Hh. destruct c; try solve [pstep]. rewrite jwh_switchcase in Hh.
  pstep; [apply phi_case_values; lia|]. pgo. apply IH. lia.
Qed.

Lemma phi_msg_children k : forall f l, oof \/ (jw_msum l < f)%nat -> (jw_hmax l <= H)%nat ->
  Phi (S k) (S k) (jmsg_children w1 f l) (jmsg_children w2 f l).
Proof.
  induction f as [|f IHf]; intros l Hf Hh; [destruct Hf as [Ho|Hf]; [exact (jl_oof L Ho _ _ _) | lia]|]. cbn [jmsg_children].
  destruct l as [|x r]; [pstep|].
  rewrite jw_msum_cons in Hf. rewrite jw_hmax_cons in Hh. pose proof (nmsg_size_pos x) as Hx.
  (* the budget left for a part of this element or for the rest of the list *)
  assert (Hsub : forall m, (m < nmsg_size x + jw_msum r)%nat -> oof \/ (m < f)%nat)
    by (intros m Hm; destruct Hf as [Ho|Hf]; [left; exact Ho | right; lia]).
  apply (jl_bind L) with (k1 := S k); [|intros _; apply IHf; [apply Hsub|]; lia].
  destruct x; try solve [pstep].
  - (* placeholder *) rewrite jwh_placeholder in Hh. pstep.
  - (* plural *)
    rewrite jwh_plural in Hh. rewrite nmsg_size_plural in Hsub.
    pstep; [pstep|]. pstep; [pstep|]. pstep; [pstep|]. pstep; [pstep|]. pstep; [pstep|].
    apply (jl_bind L) with (k1 := S k); [|intros _].
    { assert (Hc : forall m, (m <= jw_msum cases)%nat -> oof \/ (m < f)%nat) by (intros m Hm; apply Hsub; lia).
      assert (Hch : (jw_hmax cases <= H)%nat) by lia.
      clear Hsub Hf Hh Hx. induction cases as [|c cr IHc]; [pstep|].
      rewrite jw_msum_cons in Hc. rewrite jw_hmax_cons in Hch.
      pstep; [|apply IHc; [intros m Hm; apply Hc|]; lia]. unfold plural_case_body. destruct c; try solve [pstep].
      rewrite nmsg_size_case in Hc. rewrite jwh_pluralcase in Hch.
      pstep; [pstep|]. pstep; [pstep|]. pstep; [apply IHf; [apply Hc|]; lia | pstep]. }
    pstep; [pstep|]. pstep; [pstep|]. pstep; [apply IHf; [apply Hsub|]; lia | pstep].
Qed.

Lemma phi_eval_part k body p : (jw_hmax body <= H)%nat -> Phi (S k) (S k) (jeval_part w1 body p) (jeval_part w2 body p).
Proof.
  intros Hb. induction p as [t|name|var cases IH] using jmpart_ind'; cbn [jeval_part].
  - pstep.
  - destruct (find_placeholder_fuel (msg_size body) body name) as [r Er]; [rewrite msg_size_eq; lia|].
    apply (jl_from L) with (k1 := S k) (R := fun ph => ph = r).
    + apply jans_lift. rewrite Er. exact I.
    + intros st ph st' E. unfold jlift in E. rewrite Er in E. injection E as <- _. reflexivity.
    + intros ph ->. destruct r as [phbody|]; [|pstep]. apply find_placeholder_height in Er. pstep.
  - destruct (jfind_plural body var) as [x|] eqn:Ex; [|pstep].
    apply find_plural_in in Ex. apply jw_hmax_in in Ex.
    destruct x; try solve [pstep]. rewrite jwh_plural in Ex.
    pstep; [pstep|]. pstep; [pstep|]. pstep; [pstep|]. pstep; [pstep|]. pstep; [pstep|].
    apply (jl_bind L) with (k1 := S k); [|intros _; pstep].
    generalize 0 as i. induction IH as [|c cr Hc Hcr IHc]; intro i; [pstep|].
    pstep; [pstep|]. pstep; [pstep|].
    apply (jl_bind L) with (k1 := S k); [|intros _].
    { clear - Hc L. induction Hc as [|q qr Hq Hqr IHq]; [apply (jl_refl L), jans_ret|].
      apply (jl_bind L) with (k1 := S k); [exact Hq | intros _; exact IHq]. }
    pstep; [pstep|]. pstep; [pstep|]. apply IHc.
Qed.

Lemma phi_eval_parts k body ps : (jw_hmax body <= H)%nat -> Phi (S k) (S k) (jeval_parts w1 body ps) (jeval_parts w2 body ps).
Proof.
  intros Hb. induction ps as [|p r IH]; cbn [jeval_parts]; [pstep|].
  pstep; [apply phi_eval_part; exact Hb | exact IH].
Qed.

Lemma phi_visit_msg k id body : (jw_hmax body <= H)%nat -> Phi (S k) (S k) (visit_msg o w1 id body) (visit_msg o w2 id body).
Proof.
  intros Hb. unfold visit_msg.
  assert (Hc : Phi (S k) (S k) (jmsg_children w1 (msg_size body) body) (jmsg_children w2 (msg_size body) body))
    by (apply phi_msg_children; [right; rewrite msg_size_eq; lia | exact Hb]).
  destruct (o_msgs o) as [msgs|]; [|exact Hc].
  destruct (assoc_n id msgs); [apply phi_eval_parts; exact Hb | exact Hc].
Qed.

Lemma phi_visit_template k prev name body ae :
  (jw_height body <= H)%nat -> Phi (S k) (S k) (visit_template o w1 prev name body ae) (visit_template o w2 prev name body ae).
Proof. intros Hb. unfold visit_template, template_head, template_rest. pstep; [pstep|]. cbv zeta. pgo. Qed.

Lemma phi_walk_node k prev n : (jw_height n <= S H)%nat -> Phi (S k) (S k) (jwalk_node o w1 prev n) (jwalk_node o w2 prev n).
Proof.
  intros Hn. destruct n; cbn [jwalk_node]; cbv zeta; try solve [pstep].
  - (* NGlobal *) rewrite jwh_global in Hn.
    destruct (node_of_value p v) as [n'|] eqn:E; [|pstep].
    apply node_of_value_height in E. pstep.
  - (* NFunc *) rewrite jwh_func in Hn. apply phi_visit_function. lia.
  - (* NListLit *) rewrite jwh_listlit in Hn. pstep; [pstep|]. pstep; [apply phi_list_items; lia | pstep].
  - (* NMapLit *) rewrite jwh_maplit in Hn. pose proof (jw_hmap_sort items).
    pstep; [pstep|]. pstep; [apply phi_map_items; lia | pstep].
  - (* NDataRef *) rewrite jwh_dataref in Hn. apply phi_visit_dataref. lia.
  - (* NNot *) cbn [jw_height] in Hn. pgo.
  - (* NNeg *) cbn [jw_height] in Hn. pgo.
  - (* NBin *) cbn [jw_height] in Hn. destruct op; try (apply phi_jop; lia). pgo.
  - (* NTern *) cbn [jw_height] in Hn. pgo.
  - (* NList *) rewrite jwh_list in Hn. pstep; [pstep|]. pstep; [apply phi_walk_list; lia | pstep].
  - (* NPrint *) rewrite jwh_print in Hn. apply phi_visit_print; lia.
  - (* NCss *) cbn [jw_height] in Hn. destruct expr as [x|]; pgo.
  - (* NLog *) cbn [jw_height] in Hn. pgo.
  - (* NIf *) rewrite jwh_if in Hn. pstep; [pstep|]. pstep; [apply phi_if_conds; lia | pstep].
  - (* NFor *) rewrite jwh_for in Hn.
    assert (Hfe : Phi (S k) (S k) (visit_foreach w1 var n1 n2 ifempty) (visit_foreach w2 var n1 n2 ifempty))
      by (apply phi_visit_foreach; lia).
    destruct n1; try exact Hfe.
    destruct (bstr_eqb name jn_range); [|exact Hfe].
    rewrite jwh_func in Hn. pose proof (jw_height_pos n2). apply phi_visit_for_range; lia.
  - (* NSwitch *) rewrite jwh_switch in Hn.
    pstep; [pstep|]. pstep; [pstep|]. pstep; [pstep|]. pstep; [pstep|]. pstep; [pstep|]. pstep; [apply phi_switch_cases; lia | pstep].
  - (* NCall *) rewrite jwh_call in Hn. apply phi_visit_call; lia.
  - (* NLetValue *) cbn [jw_height] in Hn. pgo.
  - (* NLetContent *) cbn [jw_height] in Hn. pgo.
  - (* NMsg *) rewrite jwh_msg in Hn. apply phi_visit_msg. lia.
  - (* NTemplate *) cbn [jw_height] in Hn. apply phi_visit_template. lia.
  - (* NNamespace *) apply (jl_bind L) with (k1 := S k); [pstep | intros _]. apply phi_ns_decls. right. lia.
Qed.

Lemma phi_walk_body k n : (jw_height n <= S H)%nat -> Phi (S k) (S k) (jwalk_body o w1 n) (jwalk_body o w2 n).
Proof. intros Hn. unfold jwalk_body. pstep; [pstep|]. pstep; [pstep|]. apply phi_walk_node. exact Hn. Qed.

(* visitSoyFile after its three header lines *)
Lemma phi_file k name body : (jw_hmax body <= H)%nat ->
  Phi (S k) (S k)
    (jsln [CText t_hdr1; CFile (line_comment_safe name); CText t_dot] ;;; jsln [CText t_hdr2] ;;; jsln [] ;;; jwalk_list w1 body)
    (jsln [CText t_hdr1; CFile (line_comment_safe name); CText t_dot] ;;; jsln [CText t_hdr2] ;;; jsln [] ;;; jwalk_list w2 body).
Proof. intros Hb. pstep; [pstep|]. pstep; [pstep|]. pstep; [pstep|]. apply phi_walk_list. exact Hb. Qed.

End Walk.

(* the judgement itself passes through the generator *)
Lemma ans_block k (w : node -> J unit) n : jans k k (w n) -> jans k k (jblock w n).
Proof.
  intros Hw st. unfold jblock, jbind, jget. cbv beta iota zeta.
  match goal with |- context [w n ?sub] => pose proof (Hw sub) as Hs; destruct (w n sub) as [[u sub']| | | | |] end;
    try exact Hs. intros E. exact E.
Qed.

Lemma jans_logic : jlogic False (fun A k k' m1 _ => jans k k' m1).
Proof.
  constructor.
  - intros A k k' m Hm. exact Hm.
  - intros A B k k1 k2 m1 _ f1 _. apply jans_bind.
  - intros A B k k1 k2 R m f1 _. apply jans_from.
  - intros k w1 _ n. apply ans_block.
  - intros [].
Qed.

(* ... and so does [jnf] alone *)
Lemma jnf_logic : jlogic False (fun A _ _ m1 _ => jnf m1).
Proof.
  constructor.
  - intros A k k' m. apply jans_jnf.
  - intros A B _ _ _ m1 _ f1 _ Hm Hf st. unfold jbind. specialize (Hm st).
    destruct (m1 st) as [[x st']| | | | |]; try discriminate; [apply Hf | congruence].
  - intros A B k k1 _ R m f1 _ Hm HR Hf st. unfold jbind. pose proof (jans_jnf _ _ _ Hm st) as Hn.
    destruct (m st) as [[x st']| | | | |] eqn:E; try discriminate; [exact (Hf x (HR _ _ _ E) st') | congruence].
  - intros _ w1 _ n Hw st. unfold jblock, jbind, jget. cbv beta iota zeta.
    match goal with |- context [w1 n ?sub] => pose proof (Hw sub) as Hs; destruct (w1 n sub) as [[u sub']| | | | |] end;
      congruence.
  - intros [].
Qed.

Section Answers.
Variable o : jopts.

(* a budget of the tree's height is enough *)
Theorem ans_walk : forall fuel k n, (jw_height n <= fuel)%nat -> jans (S k) (S k) (jwalk o fuel n).
Proof.
  induction fuel as [|f IH]; intros k n Hn; [pose proof (jw_height_pos n); lia|].
  cbn [jwalk]. exact (phi_walk_body o _ _ jans_logic (jwalk o f) (jwalk o f) f IH k n Hn).
Qed.

Theorem nf_walk : forall fuel n, (jw_height n <= fuel)%nat -> jnf (jwalk o fuel n).
Proof.
  induction fuel as [|f IH]; intros n Hn; [pose proof (jw_height_pos n); lia|].
  cbn [jwalk]. exact (phi_walk_body o _ _ jnf_logic (jwalk o f) (jwalk o f) f (fun _ => IH) 0%nat n Hn).
Qed.

Lemma ans_visit_file fuel name body : (jw_hmax body <= fuel)%nat -> jans 1 1 (visit_file o fuel name body).
Proof.
  intros Hb. exact (phi_file _ _ jans_logic (jwalk o fuel) (jwalk o fuel) fuel (ans_walk fuel) 0%nat name body Hb).
Qed.
End Answers.

(* soyjs.Write: with a budget of the height of the file's tree the model ANSWERS: a script, an error (s.errorf), or
   OutOfModel (a float literal outside the printer's domain, a node kind the Go types exclude) -- never a run-time
   panic, a loop without exit or an exhausted budget *)
Theorem gen_file_answers : forall o fuel name body,
  (jw_hmax body <= fuel)%nat ->
  match gen_file o fuel name body with Ok _ | Err _ | OutOfModel => True | _ => False end.
Proof.
  intros o fuel name body Hb. unfold gen_file.
  pose proof (ans_visit_file o fuel name body Hb jinit_state) as Hf.
  destruct (visit_file o fuel name body jinit_state) as [[u st]| | | | |]; try exact I; try exact Hf; exact (Hf eq_refl).
Qed.

Theorem gen_file_fuel : forall o fuel name body,
  (jw_hmax body <= fuel)%nat -> gen_file o fuel name body <> OutOfFuel.
Proof. intros o fuel name body Hb E. pose proof (gen_file_answers o fuel name body Hb) as Ha. rewrite E in Ha. exact Ha. Qed.

(* the budgets the model gives its inner loops are never the reason of an OutOfFuel: for ANY budget of the walker,
   an exhausted budget of [gen_file] comes from [jwalk]'s own budget (stated for the two inner loops that are not
   inside the walker's recursion) *)
Theorem inner_budgets_suffice :
  (forall body name, jfind_placeholder (msg_size body) body name <> OutOfFuel) /\
  (forall name, jnf (ns_decls (S (length name)) name 0)).
Proof.
  split.
  - intros body name. destruct (find_placeholder_fuel (msg_size body) body name) as [r ->]; [rewrite msg_size_eq; lia | discriminate].
  - intros name. apply (jans_jnf 0 0), (phi_ns_decls _ _ jans_logic). right. lia.
Qed.
