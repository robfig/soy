(* [walkx] (Model/CheckerRun.v) is [walk] (Model/Interp.v) up to the unbound-lookup counter:
   from states that differ only in the counter (the one of [walkx] not above the one of [walk])
   both return the same outcome and value and end in states that again differ only in the
   counter.  Hence [render_xc] is [render] with a smaller-or-equal counter
   ([render_x_is_render]): the walker never reads the counter.

   Proof: the relational walker principle of Proofs/InterpRel.v with the guard that holds
   of every node; every primitive is related to itself. *)
From Coq Require Import Lia.
From Soy Require Import Model.Bytes Model.Num Model.Values Model.Outcome Model.Ast
  Model.Escape Model.Directives Model.Print Generated.Tables Model.Interp Model.RefView Model.CheckerRun
  Model.Checker Proofs.InterpLogic Proofs.InterpGuard Proofs.InterpRel Proofs.SafetyMono
  Proofs.CheckerInterpProofs Proofs.CheckerExcuseProofs.
Open Scope N_scope.

Definition eqU (s1 s2 : mstate) : Prop := exists u, s1 = with_unbound s2 u /\ (u <= unbound s2)%nat.

Definition simU {A} (m1 m2 : M A) : Prop :=
  forall s1 s2, eqU s1 s2 -> fst (m1 s1) = fst (m2 s2) /\ eqU (snd (m1 s1)) (snd (m2 s2)).

Lemma eqU_refl s : eqU s s.
Proof. exists (unbound s). split; [destruct s; reflexivity | lia]. Qed.

Lemma eqU_uncount s1 s2 : eqU s1 s2 -> eqU (uncount s1) s2.
Proof. intros (u & -> & Hu). exists (pred u). split; [reflexivity | lia]. Qed.

(* a state transformer that neither reads nor writes the counter *)
Lemma eqU_map (f : mstate -> mstate) s1 s2 :
  (forall st u, f (with_unbound st u) = with_unbound (f st) u) -> (forall st, unbound (f st) = unbound st) ->
  eqU s1 s2 -> eqU (f s1) (f s2).
Proof. intros Hf Hu (u & -> & Hle). exists u. split; [apply Hf | rewrite Hu; exact Hle]. Qed.

Lemma simU_const {A} (o : outcome A) : simU (fun st => (o, st)) (fun st => (o, st)).
Proof. intros s1 s2 H. split; [reflexivity | exact H]. Qed.

Lemma simU_modify (f : mstate -> mstate) :
  (forall st u, f (with_unbound st u) = with_unbound (f st) u) -> (forall st, unbound (f st) = unbound st) ->
  simU (modify f) (modify f).
Proof. intros Hf Hu s1 s2 H. split; [reflexivity | apply eqU_map; assumption]. Qed.

Lemma simU_bind {A B} (m1 m2 : M A) (f1 f2 : A -> M B) :
  simU m1 m2 -> (forall x, simU (f1 x) (f2 x)) -> simU (mbind m1 f1) (mbind m2 f2).
Proof.
  intros Hm Hf s1 s2 H. destruct (Hm s1 s2 H) as [Hr Hs]. unfold mbind.
  destruct (m1 s1) as [r1 s1'], (m2 s2) as [r2 s2']. cbn [fst snd] in *. subst r2.
  destruct r1; try (split; [reflexivity | exact Hs]). apply Hf. exact Hs.
Qed.

Ltac prim :=
  let u := fresh "u" in let Hu := fresh "Hu" in
  intros ? s2 (u & -> & Hu); destruct s2; unfold with_unbound in *; cbn in *.
Ltac done_prim := split; [reflexivity | eexists; split; [reflexivity | cbn; lia]].

Lemma simU_write w : simU (write w) (write w).
Proof.
  prim. unfold write; cbn. destruct bufs as [|buf rest]; [|done_prim].
  destruct calls_left as [[|n]|]; destruct bytes_left as [k|]; try (destruct (N.of_nat (length w) <=? k)); done_prim.
Qed.

Lemma simU_set k v : simU (m_set k v) (m_set k v).
Proof.
  prim. unfold m_set; cbn. destruct ctx as [|f r]; [done_prim|]. cbn. destruct (f_origin f); done_prim.
Qed.

Lemma simU_lookup k : simU (m_lookup k) (m_lookup k).
Proof. prim. unfold m_lookup; cbn. destruct (sc_lookup ctx k); done_prim. Qed.

Lemma simU_fresh_list l : simU (fresh_list l) (fresh_list l).
Proof. prim. destruct l; done_prim. Qed.
Lemma simU_fresh_list_or_nil l : simU (fresh_list_or_nil l) (fresh_list_or_nil l).
Proof. prim. destruct l; done_prim. Qed.
Lemma simU_fresh_map m : simU (fresh_map m) (fresh_map m).
Proof. prim. done_prim. Qed.

Lemma eqU_fields s1 s2 : eqU s1 s2 ->
  ctx s1 = ctx s2 /\ mode s1 = mode s2 /\ cur s1 = cur s2 /\ depth_ s1 = depth_ s2 /\ bufs s1 = bufs s2
  /\ out s1 = out s2 /\ shared_writes s1 = shared_writes s2.
Proof. intros (u & -> & _). repeat split. Qed.

Lemma simU_logic : walker_logic_r (fun _ => true) (@simU) (@simU value) (fun _ _ => True).
Proof.
  constructor.
  - (* ext *) intros A m1 m1' m2 m2' H1 H2 H s1 s2 He. rewrite <- H1, <- H2. apply H. exact He.
  - intros A x. apply simU_const.
  - intros A e. apply simU_const.
  - intros A o _. apply simU_const.
  - intros A B m1 m2 f1 f2. apply simU_bind.
  - (* set_cur *) intros p. apply simU_modify; reflexivity.
  - (* template mode *) intros p name body ae priv _. apply simU_modify; reflexivity.
  - apply simU_write.
  - apply simU_set.
  - apply simU_lookup.
  - apply simU_fresh_list.
  - apply simU_fresh_list_or_nil.
  - apply simU_fresh_map.
  - (* read mode *)
    intros B f1 f2 Hf s1 s2 He.
    change ((st <-- get ;;; f1 (mode st)) s1) with (f1 (mode s1) s1).
    change ((st <-- get ;;; f2 (mode st)) s2) with (f2 (mode s2) s2).
    destruct (eqU_fields _ _ He) as (_ & -> & _). apply Hf. exact He.
  - (* read ctx *)
    intros B f1 f2 Hf s1 s2 He.
    change ((st <-- get ;;; f1 (ctx st)) s1) with (f1 (ctx s1) s1).
    change ((st <-- get ;;; f2 (ctx st)) s2) with (f2 (ctx s2) s2).
    destruct (eqU_fields _ _ He) as (-> & _). apply Hf. exact He.
  - (* scoped *)
    intros m1 m2 Hm s1 s2 He. rewrite !scoped_eq.
    assert (Hp : eqU (pushed s1) (pushed s2)) by (apply (eqU_map pushed); [reflexivity | reflexivity | exact He]).
    destruct (Hm _ _ Hp) as [Hr Hs]. rewrite Hr.
    destruct (classify (fst (m2 (pushed s2)))); cbn [fst snd]; (split; [reflexivity|]); [|exact Hs].
    apply (eqU_map popped); [reflexivity | reflexivity | exact Hs].
  - (* eval *)
    intros w1 w2 e Hw s1 s2 He. rewrite !eval_eq. destruct (Hw _ _ He) as [Hr Hs]. rewrite Hr.
    destruct (eqU_fields _ _ He) as (_ & _ & -> & _).
    destruct (classify (fst (w2 e s2))); cbn [fst snd]; (split; [reflexivity|]); [|exact Hs].
    apply (eqU_map (fun st => set_cur st (cur s2))); [reflexivity | reflexivity | exact Hs].
  - (* block *)
    intros w1 w2 body Hw s1 s2 He. rewrite !render_block_eq.
    assert (Hp : eqU (buf_pushed s1) (buf_pushed s2)) by (apply (eqU_map buf_pushed); [reflexivity | reflexivity | exact He]).
    destruct (Hw _ _ Hp) as [Hr Hs]. rewrite Hr.
    destruct (classify (fst (w2 body (buf_pushed s2)))); cbn [fst snd]; [|split; [reflexivity | exact Hs]].
    cbv zeta. destruct (eqU_fields _ _ Hs) as (_ & _ & _ & _ & -> & _).
    destruct (bufs (snd (w2 body (buf_pushed s2)))) as [|buf rest]; cbn [fst snd]; (split; [reflexivity|]); [exact Hs|].
    apply (eqU_map (fun st => set_bufs st rest)); [reflexivity | reflexivity | exact Hs].
  - (* enter *)
    intros w1 w2 callee cd Hw s1 s2 He. rewrite !call_enter_eq. cbv zeta.
    assert (Hp : eqU (entered s1 callee cd) (entered s2 callee cd)).
    { destruct (eqU_fields _ _ He) as (_ & _ & _ & Hd & _). unfold entered. rewrite Hd.
      apply (eqU_map (fun st => set_depth (set_mode (set_ctx st (sc_enter cd)) (call_mode (t_ns_autoescape callee))) (S (depth_ s2))));
        [reflexivity | reflexivity | exact He]. }
    destruct (Hw _ _ Hp) as [Hr Hs]. cbn [fst snd]. rewrite Hr. split; [reflexivity|].
    destruct (eqU_fields _ _ He) as (Hc & Hm & _ & Hd & _). unfold left. rewrite Hc, Hm, Hd.
    apply (eqU_map (fun st => set_depth (set_mode (set_ctx st (ctx s2)) (mode s2)) (depth_ s2))); [reflexivity | reflexivity | exact Hs].
Qed.

Lemma simU_pure_sites : pure_sites (fun _ _ => True).
Proof. constructor; intros; exact I. Qed.

Section Sim.
Variable cf : cfg.

Theorem walkx_sim fuel : forall ps n, simU (walkx cf ps fuel n) (walk cf fuel n).
Proof.
  induction fuel as [|f IH]; intros ps n.
  - apply simU_const.
  - assert (Hbody : forall ps0 c, simU (walk_body cf (walkx cf ps0 f) c) (walk_body cf (walk cf f) c)).
    { intros ps0 c.
      apply (rphi_walk_body cf (fun _ => true) (@simU) (@simU value) (fun _ _ => True)
               simU_logic simU_pure_sites (fun _ _ => eq_refl) (walkx cf ps0 f) (walk cf f)).
      - intros c0 _. apply IH.
      - intros callee _. apply IH.
      - apply deep_true. }
    rewrite walk_S.
    destruct n; try (intros s1 s2 He; cbn [walkx is_excused]; apply Hbody; exact He).
    + (* data reference: the excused miss is taken back *)
      intros s1 s2 He. cbn [walkx].
      destruct (Hbody ps (NDataRef p key access) s1 s2 He) as [Hr Hs].
      destruct (is_excused ps (NDataRef p key access) (ctx s1)); [|split; assumption].
      destruct (walk_body cf (walkx cf ps f) (NDataRef p key access) s1) as [r1 s1']. cbn [fst snd] in *.
      split; [exact Hr | apply eqU_uncount; exact Hs].
    + (* call *)
      cbn [walkx]. unfold walk_body. cbn [walk_node pos_of].
      apply simU_bind; [apply simU_modify; reflexivity | intros _].
      destruct (find_template (r_templates (c_reg cf)) name) as [callee|]; [|apply simU_const].
      apply simU_bind.
      { apply (rphi_call_data (fun _ => true) (@simU) (@simU value) (fun _ _ => True)
                 simU_logic (walkx cf ps f) (walk cf f)); [intros c0 _; apply IH|].
        destruct data; [apply deep_true | reflexivity]. }
      intros cd. apply simU_bind.
      { apply (rphi_call_params (fun _ => true) (@simU) (@simU value) (fun _ _ => True)
                 simU_logic (walkx cf ps f) (walk cf f)); [intros c0 _; apply IH|].
        clear. induction params as [|x r IHr]; [reflexivity|]. cbn [forallb]. rewrite deep_true, IHr. reflexivity. }
      intros cd'. apply simU_bind; [apply simU_modify; reflexivity | intros _].
      apply (wr_enter _ _ _ _ simU_logic). apply IH.
Qed.

Theorem render_x_is_render fuel name data_id data cl bl first_id :
  let rx := render_xc cf fuel name data_id data cl bl first_id in
  let r := render cf fuel name data_id data cl bl first_id in
  rr_outcome rx = rr_outcome r /\ rr_writes rx = rr_writes r /\ rr_file rx = rr_file r /\ rr_line rx = rr_line r
  /\ rr_shared_writes rx = rr_shared_writes r /\ (rr_unbound rx <= rr_unbound r)%nat.
Proof.
  unfold render_xc, render. destruct (find_template (r_templates (c_reg cf)) name) as [t|]; [|cbn; repeat split; lia].
  set (st0 := init_state _ _ _ _ _ _).
  destruct (walkx_sim fuel (map fst (t_params t)) (t_node t) st0 st0 (eqU_refl st0)) as [Hr Hs].
  destruct (walkx cf (map fst (t_params t)) fuel (t_node t) st0) as [r1 s1].
  destruct (walk cf fuel (t_node t) st0) as [r2 s2]. cbn [fst snd] in *. subst r2.
  destruct Hs as (u & -> & Hu).
  destruct r1; cbn; try (repeat split; exact Hu).
  destruct (assoc_s name (r_sources (c_reg cf))), (assoc_s name (r_files (c_reg cf))); cbn; try (repeat split; exact Hu).
  destruct (line_number b (cur s2)); cbn; repeat split; exact Hu.
Qed.
End Sim.

(* the last clause of C07 in full *)
Theorem accepted_no_unbound_lookup_full cf fuel name data_id data cl bl first_id :
  check_registry (c_reg cf) = Accept ->
  registry_shaped (c_reg cf) = true ->
  let rx := render_xc cf fuel name data_id data cl bl first_id in
  let r := render cf fuel name data_id data cl bl first_id in
  rr_unbound rx = 0%nat
  /\ rr_outcome rx = rr_outcome r /\ rr_writes rx = rr_writes r /\ rr_file rx = rr_file r /\ rr_line rx = rr_line r
  /\ rr_shared_writes rx = rr_shared_writes r.
Proof.
  intros Hc Hs rx r.
  destruct (render_x_is_render cf fuel name data_id data cl bl first_id) as (H1 & H2 & H3 & H4 & H5 & _).
  split; [exact (accepted_no_unbound_name cf fuel name data_id data cl bl first_id Hc Hs)|].
  repeat split; assumption.
Qed.

Theorem accepted_bundle_no_unbound_name fs cf fuel name data_id data cl bl first_id :
  compile_check fs = Accept ->
  (forall ts, add_files [] fs = AddOk ts -> c_reg cf = registry_of ts fs) ->
  registry_shaped (c_reg cf) = true ->
  rr_unbound (render_xc cf fuel name data_id data cl bl first_id) = 0%nat.
Proof.
  intros Hc Hreg. destruct (compile_check_registry fs Hc) as (ts & Hadd & Hchk). rewrite <- (Hreg ts Hadd) in Hchk.
  apply accepted_no_unbound_name. exact Hchk.
Qed.
