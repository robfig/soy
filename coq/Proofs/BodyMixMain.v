(* C15, template level, bodies in which comments and tags mix: scanner model and parser model composed on
   T0 {c1} T1 {c2} T2 ... with comments in every stretch (Spec/TextMix.v mix_body_ok / mix_body_out). *)
From Soy Require Import Model.Bytes Model.Outcome Model.Ast Model.Token Model.ExprParser Model.Parser Model.Lexer Generated.Tables Spec.Text
  Spec.TextBody Spec.TextMix Proofs.RawTextProofs Proofs.ExprParserRules Proofs.LexTokens Proofs.LexBodyText Proofs.LexBodyMixMain
  Proofs.LexTemplate Proofs.ParseBodyText Proofs.ParseBodyMix Proofs.ParseTemplate.
From Coq Require Import Lia.
Open Scope N_scope.

(* a body that ends the input is a body followed by EOF *)
Lemma mshape_T pcs rp items : mshape pcs rp items -> exists e, t_typ e = pit_EOF /\ mshapeT [e] pcs rp items.
Proof.
  induction 1 as [pcs its e Hps He|pcs its o tg pcs' rest items Hps Htg _ (e & He & IH)].
  - exists e. split; [exact He|apply mt_end; exact Hps].
  - exists e. split; [exact He|apply mt_tag; assumption].
Qed.

Lemma mix_rest_plain : forall rest, mix_rest_ok rest -> Forall (fun sg : seg => plain (snd sg)) rest.
Proof. induction rest as [|[c T] r IH]; [constructor|]. intros (_ & [Hpl _] & Hr). constructor; [exact Hpl|exact (IH Hr)]. Qed.

Section Main.
Variable uni_letter uni_digit : Z -> bool.
Hypothesis letter_ascii : forall c, (c < 128)%N -> uni_letter (Z.of_N c) = ((65 <=? c) && (c <=? 90) || (97 <=? c) && (c <=? 122))%N.
Hypothesis digit_ascii : forall c, (c < 128)%N -> uni_digit (Z.of_N c) = digit_b c.
Hypothesis letter_eof : uni_letter (-1)%Z = false.
Hypothesis digit_eof : uni_digit (-1)%Z = false.
Variable inlen : N.
Variable lexq : bstr -> list tok.
Variable unq : bstr -> option bstr.
Notation PE g := (lift_expr inlen parse_expr g).
Notation IL g := (item_list inlen lexq unq parse_expr expr_fuel g).

Lemma soy_file_mix_nodes pcs rp items : mshape pcs rp items -> Forall no_nul pcs -> Forall (fun q => Forall no_nul (snd q)) rp ->
  exists pos nodes st, po_result (soy_file inlen lexq unq items) = POk (NList pos nodes) st /\ Forall is_raw nodes /\
     concat (map raw_text_of nodes) = norm_pieces false pcs ++ mix_out rp.
Proof.
  intros Hsh Hn0 Hnr. destruct (stream_init items) as [Hs Hi]. destruct (mshape_T pcs rp items Hsh) as (e & He & HshT).
  unfold soy_file, parse_file, file_fuel.
  replace (length items + 8)%nat with (S (length items + 7)) by lia. cbn [item_list].
  set (g := (length items + 7)%nat).
  assert (Hhalt : forall pre pos acc s f, Forall is_comment pre -> stream (c_p s) = pre ++ [e] -> inv (c_p s) -> (length pre + 2 <= g)%nat ->
            exists pos1 s', item_list_loop inlen lexq unq parse_expr expr_fuel (PE g) (IL g) g (S f) u_eof pos acc s = COk (NList pos1 acc) s' /\ True).
  { intros pre pos acc s f Hpre Hs0 Hi0 Hlf. destruct (eof_iter inlen lexq unq parse_expr expr_fuel (PE g) (IL g) g pre e [] f pos acc s Hpre He Hs0 Hi0 Hlf) as (pos1 & s' & H). eauto. }
  destruct (mshapeT_run inlen lexq unq parse_expr expr_fuel (PE g) (IL g) g u_eof eq_refl eq_refl (special_not_until u_eof eq_refl) eq_refl (fun _ => True) e []
              ltac:(rewrite He; discriminate) ltac:(rewrite He; discriminate) Hhalt
              pcs rp items HshT Hn0 Hnr [] ltac:(constructor) (S g) [] None (cst_init items) Hs Hi ltac:(cbn [app]; lia) ltac:(lia))
    as (pos & nodes & s' & Hrun & _ & Hraw & Hcat).
  rewrite Hrun. exists pos, nodes, (c_p s'). cbn [po_result app]. auto.
Qed.

(* body_text_spec for bodies of text, comments, special-character commands and literal blocks *)
Theorem body_mix_impl_spec T0 rest out : mix_body_ok T0 rest -> mix_body_out T0 rest = Some out ->
  exists items pos nodes st,
    lex_items uni_letter uni_digit (lex_budget (body_src T0 rest)) false (body_src T0 rest) = Ok items /\
    po_result (soy_file inlen lexq unq items) = POk (NList pos nodes) st /\
    Forall is_raw nodes /\ concat (map raw_text_of nodes) = out.
Proof.
  intros Hok Hout. unfold mix_body_out, body_text in Hout.
  destruct (pieces MText true [] T0) as [pcs|] eqn:Hp; [|discriminate].
  destruct (mix_rest_out rest) as [out'|] eqn:Hr; [|discriminate]. cbn [app_opt] in Hout. injection Hout as <-.
  destruct (rest_out_pieces rest out' Hr) as (rp & Hrp & Ho).
  destruct (lex_body_mix uni_letter uni_digit letter_ascii digit_ascii letter_eof digit_eof T0 rest pcs rp Hok Hp Hrp) as (items & Hlex & Hsh).
  destruct Hok as [[Hpl0 _] Hrok].
  destruct (soy_file_mix_nodes pcs rp items Hsh (pieces_no_nul _ _ _ Hpl0 Hp) (rest_pieces_no_nul rest rp (mix_rest_plain rest Hrok) Hrp))
    as (pos & nodes & st & A & B & C).
  exists items, pos, nodes, st. split; [exact Hlex|]. split; [exact A|]. split; [exact B|]. rewrite C, Ho. reflexivity.
Qed.

End Main.
