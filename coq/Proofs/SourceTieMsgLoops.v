(* Source tie, family 82-gotrans-soymsg-loops: soymsg/placeholder.go tagName and genBasePlaceholderNameFromHtml,
   soymsg/id.go hash32 (its block loop, the length addition, the falling-through tail switch and both mix blocks)
   as gotrans translates them from the source of the tree under check, against Model/MsgId.v's tag_name, base_from_html and hash32.

   With hash32_z_is_source, the function hash32_z that Proofs/SourceTieMsg.v puts for the parameter `hash32` of the
   translated fingerprint / calcID is the translated hash32 itself on the calls they make (start 0, limit len(str)).

   Proof style: no name and no literal of the source is mentioned.  tagName: cases split on the MODEL's tests.
   hash32: the translated body is a sequence of lets, one per Go assignment; each is pulled through Z.of_N
   (h32pull: uint32 + - << >> ^ | & on Z = the same operation on N) and the resulting N expression must occur, as it
   stands, in the model's computation (h32_step); what is left at the end must be the model's result. *)
From Coq Require Import ZArith NArith Bool Lia ZifyBool List.
From Soy Require Import Model.Bytes Model.Outcome Generated.Tables Model.MsgId
  Proofs.SourceTieBase Proofs.SourceTieState Proofs.SourceTieMsg.
From Soy Require Import Proofs.BytesBase.
Import ListNotations.
Open Scope N_scope.

Lemma stl_take_app (pre l : bstr) : take (length pre) (pre ++ l) = pre.
Proof. apply take_app_len. Qed.

(* `for i, ch := range text { if !isAlphaNumeric(ch) { return strings.ToLower(string(text[:i])), tagType } }`:
   text = pre ++ l, i = len(pre) *)
Lemma tag_loop_matches (lower : bstr -> bstr) (ty : bstr) (l pre : bstr) :
  src_soymsg_tagName_loop1 l lower (pre ++ l) ty (go_len pre) =
  match alnum_prefix l with
  | Some p => Some (go_ret (lower (pre ++ p), ty))
  | None => Some (go_exit tt)
  end.
Proof.
  revert pre. induction l as [|c r IH]; intro pre; cbn [src_soymsg_tagName_loop1 alnum_prefix]; [reflexivity|].
  cbv zeta. rewrite <- c_alnum_matches_source. destruct (c_alnum c); cbn [negb].
  - replace (pre ++ c :: r) with ((pre ++ [c]) ++ r) by (rewrite <- app_assoc; reflexivity).
    replace (go_len pre + 1)%Z with (go_len (pre ++ [c])) by (rewrite st_go_len_app; reflexivity).
    rewrite IH. destruct (alnum_prefix r) as [p|]; [|reflexivity].
    rewrite <- app_assoc. reflexivity.
  - unfold go_slice. pose proof (st_go_len_nonneg pre) as Hp.
    replace (orb _ _) with false by (rewrite st_go_len_app; pose proof (st_go_len_nonneg (c :: r)); lia).
    cbn [go_bind]. rewrite Z.sub_0_r. change (Z.to_nat 0) with O. cbn [drop].
    unfold go_len. rewrite Nat2Z.id, stl_take_app, app_nil_r. reflexivity.
Qed.

Lemma tag_loop_matches0 (lower : bstr -> bstr) (ty : bstr) (l : bstr) :
  src_soymsg_tagName_loop1 l lower l ty 0%Z =
  match alnum_prefix l with
  | Some p => Some (go_ret (lower p, ty))
  | None => Some (go_exit tt)
  end.
Proof. exact (tag_loop_matches lower ty l []). Qed.

(* placeholder.go tagName, whole: the order of the "</" and "/>" tests with their three tag types, the two TrimPrefix
   calls, the loop, text[:i], and the panic when no byte ends the name.  strings.ToLower is a parameter of the
   translation; it is instantiated with the model's map ascii_lower, which is what strings.ToLower does on the bytes
   that reach it (bytes accepted by isAlphaNumeric are ASCII). *)
Theorem tag_name_matches_source (text : bstr) :
  match src_soymsg_tagName (map ascii_lower) text with
  | Some r => tag_name text = Ok r
  | None => tag_name text = Crash s_no_tag_name
  end.
Proof.
  unfold src_soymsg_tagName, tag_name, has_suffix, go_has_suffix, trim_prefix, go_trim_prefix. cbv zeta.
  destruct (is_prefix [60; 47] text); [|destruct (is_prefix (rev [47; 62]) (rev text))];
    rewrite tag_loop_matches0;
    match goal with |- context [alnum_prefix ?t] => destruct (alnum_prefix t) end; reflexivity.
Qed.

(* placeholder.go genBasePlaceholderNameFromHtml: tagName, the htmlTagNames lookup with its ok, tagType + tag;
   toUpperUnderscore (five regexps) is a parameter here, instantiated with the model's matcher
   (base_from_html_matches_source_closed below puts the translated toUpperUnderscore for it) *)
Theorem base_from_html_matches_source (text : bstr) :
  match src_soymsg_genBasePlaceholderNameFromHtml (map ascii_lower) to_upper_underscore text with
  | Some r => base_from_html text = Ok r
  | None => base_from_html text = Crash s_no_tag_name
  end.
Proof.
  unfold src_soymsg_genBasePlaceholderNameFromHtml, base_from_html.
  pose proof (tag_name_matches_source text) as H.
  destruct (src_soymsg_tagName (map ascii_lower) text) as [[tag ty]|]; rewrite H; cbn [go_bind bind]; [|reflexivity].
  unfold go_lookup_s, go_has_s. rewrite html_tag_names_matches_source.
  destruct (assoc_s tag src_soymsg_htmlTagNames); reflexivity.
Qed.

(* uint32 arithmetic of the translation (Z with go_wrap_u 32) = the model's arithmetic on N *)
Lemma p_wrap32 (x : N) : go_wrap_u 32 (Z.of_N x) = Z.of_N (x mod 4294967296).
Proof. unfold go_wrap_u. rewrite Z_of_N_mod by discriminate. reflexivity. Qed.
Lemma p_add (x y : N) : (Z.of_N x + Z.of_N y)%Z = Z.of_N (x + y).
Proof. lia. Qed.
Lemma p_sub32 (x y : N) : go_wrap_u 32 (Z.of_N x - Z.of_N y) = Z.of_N (sub32 x y).
Proof.
  unfold go_wrap_u, sub32. change (2 ^ 32)%Z with 4294967296%Z.
  assert (H : y mod 4294967296 < 4294967296) by (apply N.mod_upper_bound; discriminate).
  rewrite Z_of_N_mod by discriminate. rewrite N2Z.inj_sub by lia. rewrite N2Z.inj_add, Z_of_N_mod by discriminate.
  change (Z.of_N 4294967296) with 4294967296%Z.
  rewrite Zminus_mod_idemp_r.
  replace (Z.of_N x + 4294967296 - Z.of_N y)%Z with (Z.of_N x - Z.of_N y + 1 * 4294967296)%Z by lia.
  now rewrite Z_mod_plus_full.
Qed.
Lemma p_lxor (x y : N) : Z.lxor (Z.of_N x) (Z.of_N y) = Z.of_N (N.lxor x y).
Proof. now rewrite Z_of_N_lxor. Qed.
Lemma p_lor (x y : N) : Z.lor (Z.of_N x) (Z.of_N y) = Z.of_N (N.lor x y).
Proof. now rewrite Z_of_N_lor. Qed.
Lemma p_land (x y : N) : Z.land (Z.of_N x) (Z.of_N y) = Z.of_N (N.land x y).
Proof. now rewrite Z_of_N_land. Qed.
Lemma p_land_c (x : N) (p : positive) : Z.land (Z.of_N x) (Zpos p) = Z.of_N (N.land x (Npos p)).
Proof. now rewrite Z_of_N_land. Qed.
Lemma p_shiftl_c (x : N) (p : positive) : Z.shiftl (Z.of_N x) (Zpos p) = Z.of_N (N.shiftl x (Npos p)).
Proof. now rewrite Z_of_N_shiftl. Qed.
Lemma p_shiftr_c (x : N) (p : positive) : Z.shiftr (Z.of_N x) (Zpos p) = Z.of_N (N.shiftr x (Npos p)).
Proof.
  apply Z.bits_inj'. intros i Hi. rewrite Z.shiftr_spec by exact Hi.
  rewrite <- (Z2N.id i) by exact Hi. rewrite Z.testbit_of_N.
  change (Zpos p) with (Z.of_N (Npos p)). rewrite <- N2Z.inj_add, Z.testbit_of_N. now rewrite N.shiftr_spec'.
Qed.
Lemma p_shiftl_0 (z : Z) : Z.shiftl z 0 = z.
Proof. apply Z.shiftl_0_r. Qed.

(* the same, one operation at a time under operands already known to be Z.of_N of something: applied from the
   outside in (h32_pull) they carry a whole expression over in one pass *)
Lemma q_wrap32 e n : e = Z.of_N n -> go_wrap_u 32 e = Z.of_N (n mod 4294967296).
Proof. intros ->. apply p_wrap32. Qed.
Lemma q_add e1 e2 n1 n2 : e1 = Z.of_N n1 -> e2 = Z.of_N n2 -> (e1 + e2)%Z = Z.of_N (n1 + n2).
Proof. intros -> ->. apply p_add. Qed.
Lemma q_sub32 e1 e2 n1 n2 : e1 = Z.of_N n1 -> e2 = Z.of_N n2 -> go_wrap_u 32 (e1 - e2) = Z.of_N (sub32 n1 n2).
Proof. intros -> ->. apply p_sub32. Qed.
Lemma q_lxor e1 e2 n1 n2 : e1 = Z.of_N n1 -> e2 = Z.of_N n2 -> Z.lxor e1 e2 = Z.of_N (N.lxor n1 n2).
Proof. intros -> ->. apply p_lxor. Qed.
Lemma q_lor e1 e2 n1 n2 : e1 = Z.of_N n1 -> e2 = Z.of_N n2 -> Z.lor e1 e2 = Z.of_N (N.lor n1 n2).
Proof. intros -> ->. apply p_lor. Qed.
Lemma q_land_c e n (p : positive) : e = Z.of_N n -> Z.land e (Zpos p) = Z.of_N (N.land n (Npos p)).
Proof. intros ->. apply p_land_c. Qed.
Lemma q_shiftl_c e n (p : positive) : e = Z.of_N n -> Z.shiftl e (Zpos p) = Z.of_N (N.shiftl n (Npos p)).
Proof. intros ->. apply p_shiftl_c. Qed.
Lemma q_shiftr_c e n (p : positive) : e = Z.of_N n -> Z.shiftr e (Zpos p) = Z.of_N (N.shiftr n (Npos p)).
Proof. intros ->. apply p_shiftr_c. Qed.
Lemma q_shiftl_0 e n : e = Z.of_N n -> Z.shiftl e 0 = Z.of_N n.
Proof. intros ->. apply p_shiftl_0. Qed.

Ltac h32_pull :=
  lazymatch goal with
  | |- Z.of_N _ = _ => reflexivity
  | |- go_wrap_u 32 (_ - _) = _ => apply q_sub32; h32_pull
  | |- go_wrap_u 32 _ = _ => apply q_wrap32; h32_pull
  | |- (_ + _)%Z = _ => apply q_add; h32_pull
  | |- Z.lxor _ _ = _ => apply q_lxor; h32_pull
  | |- Z.lor _ _ = _ => apply q_lor; h32_pull
  | |- Z.land _ (Zpos _) = _ => apply q_land_c; h32_pull
  | |- Z.shiftl _ 0 = _ => apply q_shiftl_0; h32_pull
  | |- Z.shiftl _ (Zpos _) = _ => apply q_shiftl_c; h32_pull
  | |- Z.shiftr _ (Zpos _) = _ => apply q_shiftr_c; h32_pull
  end.

Lemma n_byte32 (x : N) : (N.land x 255) mod 4294967296 = N.land x 255.
Proof.
  apply N.mod_small. change 255 with (N.ones 8). rewrite N.land_ones.
  assert (x mod 2 ^ 8 < 2 ^ 8) by (apply N.mod_upper_bound; discriminate).
  change (2 ^ 8) with 256 in *. lia.
Qed.

Lemma st_index_b_at (pre l : bstr) (d : Z) :
  (0 <= d < go_len l)%Z -> st_small (go_len (pre ++ l)) ->
  Some (Z.of_N (nth (Z.to_nat d) l 0)) = go_index_b (pre ++ l) (go_wrap_s 64 (go_len pre + d)).
Proof.
  intros Hd Hs. unfold st_small in Hs. rewrite st_go_len_app in Hs. unfold go_len in *.
  rewrite st_wrap64 by lia. unfold go_index_b. rewrite go_index_in by (unfold go_len; rewrite app_length; lia).
  replace (Z.to_nat (Z.of_nat (length pre) + d)) with (length pre + Z.to_nat d)%nat by lia.
  rewrite nth_error_app2 by lia.
  replace (length pre + Z.to_nat d - length pre)%nat with (Z.to_nat d) by lia.
  rewrite (nth_error_nth' l 0) by lia. reflexivity.
Qed.

(* zeta-reduce the let at the head of the left-hand side *)
Ltac h32_zeta_head :=
  lazymatch goal with
  | |- (let x := ?e in @?B x) = ?R => let t := eval cbv beta in (B e) in change (t = R)
  end.

(* zeta-reduce a let (anywhere) whose bound term is a variable *)
Ltac h32_let_var :=
  match goal with
  | |- context C [let x := ?n in @?B x] =>
      is_var n;
      let t := eval cbv beta in (B n) in
      let g := context C [t] in
      change g
  end.

(* Replace a closed subterm e of the goal, uint32 arithmetic on Z.of_N's, by Z.of_N of a fresh variable standing for
   the same arithmetic on N, wherever that occurs (by generalize and destruct). *)
Ltac h32_name e :=
  lazymatch e with
  | Z.of_N _ => idtac
  | _ =>
    let H := fresh "H" in
    eassert (H : e = Z.of_N _) by h32_pull; rewrite ?n_byte32 in H; apply eq_sym in H;
    lazymatch type of H with
    | Z.of_N ?em = _ => revert H; generalize e; intros ? []; generalize em; intro
    end
  end.

Ltac h32_step :=
  lazymatch goal with
  | |- (let x := ?e in @?B x) = ?R =>
      lazymatch e with
      | go_wrap_s _ _ => idtac
      | _ => h32_name e
      end;
      h32_zeta_head; repeat h32_let_var
  end.

(* every str[i+d] of the goal, by Hrd : forall d, 0 <= d < n -> Some (Z.of_N (nth (Z.to_nat d) blk 0)) = str[i+d] *)
Ltac h32_reads Hrd :=
  repeat lazymatch goal with
         | |- context [go_index_b ?s (go_wrap_s 64 (?j + ?d))] =>
             let H := fresh in
             pose proof (Hrd d ltac:(lia)) as H; cbv beta iota delta [Z.to_nat Pos.to_nat Pos.iter_op Nat.add] in H; cbn [nth] in H;
             revert H; generalize (go_index_b s (go_wrap_s 64 (j + d))); intros ? []
         end.

(* run the model's table-driven loads m (h32_loop_loads, h32_tail_loads) down to N arithmetic on the bytes nth k blk 0 *)
Ltac h32_model m :=
  let HM := fresh "HM" in
  eassert (HM : m = _)
    by (cbv beta iota zeta delta [h32_loads h32_loop_loads h32_tail_loads fold_left fst snd h32_add h32_word h32_byte
                                   map filter N.leb N.compare Pos.compare Pos.compare_cont length N.of_nat Pos.of_succ_nat
                                   Pos.succ N.to_nat Pos.to_nat Pos.iter_op Nat.add N.eqb Pos.eqb w32 shl32];
        cbn [nth]; rewrite ?N.lor_0_l, ?N.shiftl_0_r, ?n_byte32; reflexivity);
  rewrite HM; clear HM.

Lemma h32_blocks_step (b0 b1 b2 b3 b4 b5 b6 b7 b8 b9 b10 b11 : N) (r : bstr) (st : N * N * N) :
  h32_blocks (b0 :: b1 :: b2 :: b3 :: b4 :: b5 :: b6 :: b7 :: b8 :: b9 :: b10 :: b11 :: r) st =
  let '(a, b', c) := h32_loads [b0; b1; b2; b3; b4; b5; b6; b7; b8; b9; b10; b11] h32_loop_loads st in
  h32_blocks r (mix a b' c).
Proof. reflexivity. Qed.

Lemma h32_blocks_short (rest : bstr) (st : N * N * N) : (length rest < 12)%nat -> h32_blocks rest st = (rest, st).
Proof.
  intro H.
  destruct rest as [|b0 [|b1 [|b2 [|b3 [|b4 [|b5 [|b6 [|b7 [|b8 [|b9 [|b10 [|b11 r]]]]]]]]]]]]; try reflexivity.
  cbn [length] in H. lia.
Qed.

Lemma st_wrap64_near (x d : Z) : (0 <= x < 4611686018427387904)%Z -> (0 <= d <= 4611686018427387904)%Z -> go_wrap_s 64 (x + d) = (x + d)%Z.
Proof. intros Hx Hd. apply go_wrap_s_id; [lia|]. change (2 ^ (64 - 1))%Z with 9223372036854775808%Z. lia. Qed.

(* One pass through the loop body, every input a variable: the bound test, the twelve byte reads, the three word
   loads and the mix block.  The loads are named (h32_name) before any let is reduced, so that the mix block is
   compared with a, b and c variables on both sides. *)
Lemma h32_loop_step (fuel : nat) (str blk : bstr) (limit i : Z) (a b c : N) :
  ((go_wrap_s 64 (i + 12) <=? limit)%Z = true ->
   forall d, (0 <= d < 12)%Z -> Some (Z.of_N (nth (Z.to_nat d) blk 0)) = go_index_b str (go_wrap_s 64 (i + d))) ->
  src_soymsg_hash32_loop1 (S fuel) str limit (Z.of_N c) (Z.of_N a) (Z.of_N b) i =
  if (go_wrap_s 64 (i + 12) <=? limit)%Z
  then let '(a1, b1, c1) := h32_loads blk h32_loop_loads (a, b, c) in
       let '(a2, b2, c2) := mix a1 b1 c1 in
       src_soymsg_hash32_loop1 fuel str limit (Z.of_N c2) (Z.of_N a2) (Z.of_N b2) (go_wrap_s 64 (i + 12))
  else Some (go_exit (Z.of_N c, Z.of_N a, Z.of_N b, i)).
Proof.
  intro Hread. h32_model (h32_loads blk h32_loop_loads (a, b, c)).
  cbn beta iota delta [src_soymsg_hash32_loop1]. destruct (Z.leb _ limit); [|reflexivity].
  specialize (Hread eq_refl). h32_reads Hread. cbv beta iota delta [go_bind].
  repeat match goal with |- context [let x := ?e in _] => progress h32_name e end.
  cbv beta iota delta [mix w32 shl32].
  repeat h32_step. reflexivity.
Qed.

Lemma h32_loop_matches (fuel : nat) : forall (rest pre : bstr) (a b c : N),
  st_small (go_len (pre ++ rest)) -> (length rest < 12 * fuel)%nat ->
  src_soymsg_hash32_loop1 fuel (pre ++ rest) (go_len (pre ++ rest)) (Z.of_N c) (Z.of_N a) (Z.of_N b) (go_len pre) =
  let '(rest', (a', b', c')) := h32_blocks rest (a, b, c) in
  Some (go_exit (Z.of_N c', Z.of_N a', Z.of_N b', (go_len (pre ++ rest) - go_len rest')%Z)).
Proof.
  induction fuel as [|fuel IH]; intros rest pre a b c Hs Hf; [lia|].
  assert (Hp : (0 <= go_len pre)%Z) by apply st_go_len_nonneg.
  assert (Hr : (0 <= go_len rest)%Z) by apply st_go_len_nonneg.
  assert (Hl : go_len (pre ++ rest) = (go_len pre + go_len rest)%Z) by apply st_go_len_app.
  assert (Hs' := Hs). unfold st_small in Hs'.
  assert (Hw : go_wrap_s 64 (go_len pre + 12) = (go_len pre + 12)%Z) by (apply st_wrap64_near; lia).
  destruct (Nat.ltb (length rest) 12) eqn:E.
  - apply Nat.ltb_lt in E. rewrite (h32_blocks_short rest) by exact E.
    rewrite (h32_loop_step fuel _ []), Hw.
    + replace (Z.leb _ _) with false by (unfold go_len in *; lia).
      rewrite Hl. repeat f_equal. lia.
    + rewrite Hw. unfold go_len in *. lia.
  - apply Nat.ltb_ge in E.
    destruct rest as [|b0 [|b1 [|b2 [|b3 [|b4 [|b5 [|b6 [|b7 [|b8 [|b9 [|b10 [|b11 r]]]]]]]]]]]];
      try (exfalso; cbn [length] in E; lia).
    rewrite h32_blocks_step. set (blk := [b0; b1; b2; b3; b4; b5; b6; b7; b8; b9; b10; b11]).
    change (b0 :: b1 :: b2 :: b3 :: b4 :: b5 :: b6 :: b7 :: b8 :: b9 :: b10 :: b11 :: r) with (blk ++ r) in *.
    assert (Hb : go_len (blk ++ r) = (12 + go_len r)%Z) by apply st_go_len_app. pose proof (st_go_len_nonneg r).
    rewrite (h32_loop_step fuel _ blk), Hw.
    + replace (Z.leb _ _) with true by lia.
      destruct (h32_loads blk h32_loop_loads (a, b, c)) as [[a1 b1'] c1]. destruct (mix a1 b1' c1) as [[a2 b2'] c2].
      rewrite app_assoc in *. change 12%Z with (go_len blk). rewrite <- st_go_len_app.
      apply IH; [exact Hs|]. rewrite app_length in Hf. change (length blk) with 12%nat in Hf. lia.
    + intros _ d Hd. rewrite <- (app_nth1 blk r 0) by (change (length blk) with 12%nat; lia).
      apply st_index_b_at; [lia|exact Hs].
Qed.

Lemma h32_blocks_split_n (n : nat) : forall s st, (length s <= n)%nat ->
  exists pre, s = pre ++ fst (h32_blocks s st) /\ (length (fst (h32_blocks s st)) < 12)%nat.
Proof.
  induction n as [|n IH]; intros s st Hn.
  { destruct s; [|cbn [length] in Hn; lia]. exists []. split; [reflexivity|cbn; lia]. }
  destruct (Nat.ltb (length s) 12) eqn:E.
  - apply Nat.ltb_lt in E. rewrite h32_blocks_short by exact E. exists []. split; [reflexivity|exact E].
  - apply Nat.ltb_ge in E.
    destruct s as [|b0 [|b1 [|b2 [|b3 [|b4 [|b5 [|b6 [|b7 [|b8 [|b9 [|b10 [|b11 r]]]]]]]]]]]];
      try (exfalso; cbn [length] in E; lia).
    rewrite h32_blocks_step.
    destruct (h32_loads [b0; b1; b2; b3; b4; b5; b6; b7; b8; b9; b10; b11] h32_loop_loads st) as [[a' b'] c'].
    destruct (IH r (mix a' b' c') ltac:(cbn [length] in Hn; lia)) as (pre & Hpre & Hlen).
    exists ([b0; b1; b2; b3; b4; b5; b6; b7; b8; b9; b10; b11] ++ pre). split; [|exact Hlen].
    rewrite <- app_assoc. cbn [app]. now rewrite <- Hpre.
Qed.

(* id.go hash32(str, 0, len(str), seed), whole: initial a and b, the block loop (h32_loop_matches), c += len, the tail
   switch on the number of bytes left with its eleven falling-through cases (one per length of the rest), the final
   mix, return c.  Strings below 2^62 bytes (Go's int arithmetic does not wrap). *)
Theorem hash32_matches_source (s : bstr) (seed : N) :
  st_small (go_len s) -> seed < 4294967296 ->
  src_soymsg_hash32 s 0 (go_len s) (Z.of_N seed) = Some (Z.of_N (hash32 s seed)).
Proof.
  intros Hs Hseed.
  cbv beta iota delta [src_soymsg_hash32]. repeat h32_zeta_head.
  assert (Hs' := Hs). unfold st_small in Hs'.
  rewrite Z.sub_0_r, (st_wrap64 (go_len s)), (st_wrap64 (go_len s + 1)) by lia.
  lazymatch goal with
  | |- context [src_soymsg_hash32_loop1 ?f _ _ _ ?za ?zb _] =>
      assert (HL : src_soymsg_hash32_loop1 f s (go_len s) (Z.of_N seed) za zb 0 =
                   let '(rest', (a', b', c')) := h32_blocks s (h32_init_a, h32_init_b, seed) in
                   Some (go_exit (Z.of_N c', Z.of_N a', Z.of_N b', (go_len s - go_len rest')%Z)))
        by (apply (h32_loop_matches f s [] h32_init_a h32_init_b seed Hs); unfold go_len; lia)
  end.
  rewrite HL. clear HL.
  cbv beta iota delta [hash32]. replace (w32 seed) with seed by (unfold w32; rewrite N.mod_small; lia).
  destruct (h32_blocks_split_n (length s) s (h32_init_a, h32_init_b, seed) (le_n _)) as (pre & Hpre & Hlen).
  destruct (h32_blocks s (h32_init_a, h32_init_b, seed)) as [rest [[a b] c]].
  cbn [fst] in Hpre, Hlen. cbv beta iota.
  (* the final mix, return c: the continuation K of the switch *)
  lazymatch goal with
  | |- (let x := ?e in go_bind (@?SW x) ?k) = ?R =>
      assert (HK : forall a b c, k (Z.of_N c, Z.of_N a, Z.of_N b) = Some (Z.of_N (let '(_, _, c') := mix a b c in c')))
        by (clear; intros a b c; cbv beta iota delta [mix w32 shl32]; repeat h32_step; reflexivity);
      revert HK; generalize k; intros K HK
  end.
  replace (go_len s - (go_len s - go_len rest))%Z with (go_len rest) by lia.
  replace (go_len s - go_len rest)%Z with (go_len pre) by (rewrite Hpre, st_go_len_app; lia).
  replace (go_len s) with (Z.of_N (N.of_nat (length s))) by (unfold go_len; lia).
  generalize (N.of_nat (length s)) as W. intro W.
  rewrite Hpre in *. clear Hpre s.
  rewrite (st_wrap64 (go_len rest)) by (rewrite st_go_len_app in Hs'; pose proof (st_go_len_nonneg pre); pose proof (st_go_len_nonneg rest); lia).
  (* the switch, one case per length of the rest; the string is read through Hrd only *)
  pose proof (fun d H => st_index_b_at pre rest d H Hs) as Hrd.
  clear Hs Hs'. revert Hrd. generalize (pre ++ rest) (go_len pre). intros str i Hrd.
  destruct rest as [|b0 [|b1 [|b2 [|b3 [|b4 [|b5 [|b6 [|b7 [|b8 [|b9 [|b10 [|b11 r]]]]]]]]]]]];
    try (exfalso; cbn [length] in Hlen; lia).
  all: clear Hlen; cbv beta iota delta [go_len length Z.of_nat Pos.of_succ_nat Pos.succ] in Hrd.
  all: cbv beta iota zeta delta [go_len length Z.of_nat Pos.of_succ_nat Pos.succ Z.eqb Pos.eqb].
  all: lazymatch goal with |- _ = Some (Z.of_N ?m) => h32_model m end.
  all: h32_reads Hrd; cbv beta iota delta [go_bind].
  all: lazymatch goal with |- _ (?e1, ?e2, ?e3) = _ => h32_name e1; h32_name e2; h32_name e3 end.
  all: apply HK.
Qed.

(* ... so the function that Proofs/SourceTieMsg.v puts for the parameter `hash32` of the translated fingerprint and
   calcID is the translated hash32 itself on every call they make (start 0, limit len(str), a uint32 seed) *)
Theorem hash32_z_is_source (s : bstr) (c : Z) :
  st_small (go_len s) -> (0 <= c < 4294967296)%Z ->
  src_soymsg_hash32 s 0 (go_len s) c = Some (hash32_z s 0 (go_len s) c).
Proof.
  intros Hs Hc. unfold hash32_z. rewrite <- (Z2N.id c) at 1 by lia.
  apply hash32_matches_source; [exact Hs|lia].
Qed.

(* toUpperUnderscore: the ORDER of the five regexp replacements and the template each is given, then strings.ToUpper.
   The five ReplaceAllString methods are parameters of the translation; the instances are Model/MsgId.v's matchers
   (st_re: with the template the source passes); gotrans orders these parameters by the position of the variables'
   declarations, not by the order of their use, so swapping two calls changes the body, not the binders.  "${1}_${2}" on the group-less pattern __+ expands to "_"
   (squeeze_us), on the two-group patterns to group 1, '_', group 2 (word_boundary1 / word_boundary2).  The pattern
   texts gotrans reads are those generator 42 compares with what the matchers implement. *)
Definition st_tmpl12 : bstr := [36; 123; 49; 125; 95; 36; 123; 50; 125].   (* ${1}_${2} *)

Theorem to_upper_underscore_matches_source (ident : bstr) :
  to_upper_underscore ident =
  src_soymsg_toUpperUnderscore (map ascii_upper) (st_re trim_us []) (st_re squeeze_us st_tmpl12) (st_re word_boundary1 st_tmpl12)
    (st_re (word_boundary2 c_letter c_digit) st_tmpl12) (st_re (word_boundary2 c_digit c_letter) st_tmpl12) ident.
Proof. reflexivity. Qed.

Lemma msg_patterns_match_source :
  map snd msg_regex_sources =
  [src_soymsg_leadingOrTrailing__pattern; src_soymsg_consecutive__pattern; src_soymsg_wordBoundary1_pattern;
   src_soymsg_wordBoundary2_pattern; src_soymsg_wordBoundary3_pattern].
Proof. reflexivity. Qed.

(* genBasePlaceholderNameFromHtml with the translated toUpperUnderscore for the parameter *)
Theorem base_from_html_matches_source_closed (text : bstr) :
  match src_soymsg_genBasePlaceholderNameFromHtml (map ascii_lower)
          (src_soymsg_toUpperUnderscore (map ascii_upper) (st_re trim_us []) (st_re squeeze_us st_tmpl12) (st_re word_boundary1 st_tmpl12)
             (st_re (word_boundary2 c_letter c_digit) st_tmpl12) (st_re (word_boundary2 c_digit c_letter) st_tmpl12)) text with
  | Some r => base_from_html text = Ok r
  | None => base_from_html text = Crash s_no_tag_name
  end.
Proof.
  pose proof (base_from_html_matches_source text) as H.
  unfold src_soymsg_genBasePlaceholderNameFromHtml in *.
  destruct (src_soymsg_tagName (map ascii_lower) text) as [[tag ty]|]; cbn [go_bind] in *; [|exact H].
  rewrite <- to_upper_underscore_matches_source. exact H.
Qed.
