(* Hoare-style reasoning for the command-level parser model: invariant, postconditions, and one
   lemma per primitive of Model/Parser.v (next, peek, backup, backup2, expect, errorf, the lifted
   expression parser, the nested expression parser). *)
From Soy Require Import Model.Bytes Model.Ast Model.Token Model.NumLit Model.ExprParser Model.Parser.
From Soy Require Import Generated.Tables Proofs.ParserMeasure Proofs.ExprTotal.
From Coq Require Import ZifyBool Lia.
Open Scope N_scope.

(* every nested scanner was drained, after at most |items| + 4 receives *)
Definition scan_ok (r : scanrec) : Prop := sc_drained r = true /\ (sc_recv r <= sc_sent r + 4)%nat.
Definition scans_ok (l : list scanrec) : Prop := Forall scan_ok l.
Definition until_ok (u : list N) : Prop := ~ In 0 u.

Lemma one_of_in c l : one_of c l = true -> In c l.
Proof.
  unfold one_of. rewrite existsb_exists. intros (x & Hx & E). apply N.eqb_eq in E. subst; auto.
Qed.
Lemma one_of_nz c l : until_ok l -> one_of c l = true -> c <> 0.
Proof. intros U H E. apply one_of_in in H. subst. exact (U H). Qed.

Lemma cbind_assoc {A B C} (x : cres A) (f : A -> cst -> cres B) (k : B -> cst -> cres C) :
  cbind (cbind x f) k = cbind x (fun a s => cbind (f a s) k).
Proof. destruct x; reflexivity. Qed.

Section Base.
Variable inlen : N.
Variable NT : nat.
Variable eofchk : bool.

Notation pinv := (pinv inlen NT eofchk).
Notation nrel := (nrel inlen NT eofchk).
Notation twf := (twf inlen).

Definition cinv (s : cst) : Prop := pinv (c_p s) /\ scans_ok (c_scans s).
Notation cmu s := (mu (c_p s)).
Notation clpz s := (lpz (c_p s)).
Notation ckap s := (kap (c_p s)).
Notation cpeek s := (p_peek (c_p s)).
Notation ccur s := (cur_tok (c_p s)).

Definition cpost {A} (b : Z) (Q : A -> cst -> Prop) (r : cres A) : Prop :=
  match r with
  | COk a s' => cinv s' /\ ckap s' = b /\ Q a s'
  | CErr t c s' => cinv s' /\ (clpz s' <= b + 2)%Z
  | CCrash _ => False
  | CFuel => False
  end.

Lemma cpost_bind {A B} b (Q1 : A -> cst -> Prop) (Q : B -> cst -> Prop) x f :
  cpost b Q1 x ->
  (forall a s', cinv s' -> ckap s' = b -> Q1 a s' -> cpost b Q (f a s')) ->
  cpost b Q (cbind x f).
Proof.
  destruct x as [a s'|t c s'|m|]; cbn; intros H K; auto. destruct H as (H1 & H2 & H3). apply K; auto.
Qed.
Lemma cpost_weaken {A} b (Q1 Q : A -> cst -> Prop) r :
  cpost b Q1 r -> (forall a s', cinv s' -> ckap s' = b -> Q1 a s' -> Q a s') -> cpost b Q r.
Proof. destruct r; cbn; intros H K; auto. destruct H as (H1 & H2 & H3). auto. Qed.

Lemma cinv_peek s : cinv s -> (cpeek s <= 2)%nat.
Proof. intros (H & _). apply (pi_peek _ _ _ _ H). Qed.

Definition cnrel (s : cst) (t : tok) (s1 : cst) : Prop :=
  nrel (c_p s) t (c_p s1) /\ c_scans s1 = c_scans s.

Lemma c_next_eq s : cinv s ->
  exists t s1, c_next s = COk t s1 /\ cnrel s t s1.
Proof.
  intros Hi. pose proof (cinv_peek s Hi) as Hp. destruct Hi as (Hi & Hs).
  unfold c_next. destruct (Nat.leb_spec 3 (cpeek s)); [lia|].
  pose proof (p_next_rel inlen NT eofchk _ Hi) as R.
  destruct (p_next (c_p s)) as [t p'] eqn:E. cbn [fst snd] in R.
  exists t, (set_p s p'). split; [reflexivity|]. split; cbn [c_p c_scans set_p]; auto.
Qed.

Lemma cnrel_inv s t s1 : cinv s -> cnrel s t s1 -> cinv s1.
Proof. intros (_ & Hs) (R & E). split; [apply (nr_inv _ _ _ _ _ _ R)|rewrite E; auto]. Qed.

Lemma c_next_step {B} b (Q : B -> cst -> Prop) s f :
  cinv s -> (forall t s1, cnrel s t s1 -> cinv s1 -> cpost b Q (f t s1)) -> cpost b Q (cbind (c_next s) f).
Proof.
  intros Hi K. destruct (c_next_eq s Hi) as (t & s1 & E & R). rewrite E. cbn [cbind].
  apply K; auto. eapply cnrel_inv; eauto.
Qed.

(* backup after that next *)
Lemma c_backup_after s t s1 : cinv s -> cnrel s t s1 ->
  cinv (c_backup s1) /\ cmu (c_backup s1) = cmu s /\ clpz (c_backup s1) = clpz s.
Proof.
  intros (_ & Hs) (R & E). unfold c_backup, cinv; cbn [c_p c_scans set_p].
  destruct R. rewrite E. split; [split|split]; auto.
Qed.

(* backup over an item of non-zero type, and the next that reads it again *)
Lemma c_backup_nz s : cinv s -> (cpeek s <= 1)%nat -> t_typ (ccur s) <> 0 ->
  cinv (c_backup s) /\ cmu (c_backup s) = S (cmu s) /\ clpz (c_backup s) = (clpz s - 1)%Z
  /\ c_next (c_backup s) = COk (ccur s) s.
Proof.
  intros (Hi & Hs) Hk Hz. destruct (p_backup_rel inlen NT eofchk _ Hi Hk Hz) as (A & B & C).
  unfold c_backup, cinv; cbn [c_p c_scans set_p]. split; [split; auto|]. split; [auto|]. split; [auto|].
  unfold c_next; cbn [c_p set_p]. pose proof (pi_peek _ _ _ _ A).
  destruct (Nat.leb_spec 3 (p_peek (p_backup (c_p s)))); [lia|].
  rewrite p_next_backup by auto. destruct s; reflexivity.
Qed.

Lemma c_backup2_rel s t s1 t1 :
  cinv s -> (cpeek s <= 1)%nat -> t1 = ccur s -> t_typ t1 <> 0 -> t_typ t1 <> pit_EOF -> twf t1 ->
  cnrel s t s1 ->
  cinv (c_backup2 s1 t1) /\ cmu (c_backup2 s1 t1) = S (cmu s) /\ clpz (c_backup2 s1 t1) = (clpz s - 1)%Z.
Proof.
  intros (Hi & Hs) Hk Ht1 Hz Hne Hw (R & E).
  destruct (p_backup2_rel inlen NT eofchk _ _ _ _ Hi Hk Ht1 Hz Hne Hw R) as (A & B & C).
  unfold c_backup2, cinv; cbn [c_p c_scans set_p]. rewrite E. split; [split|split]; auto.
Qed.

(* ---------- peek (followed by the next that consumes the peeked item) ---------- *)
Lemma c_peek_step {B} b (Q : B -> cst -> Prop) s f :
  cinv s ->
  (forall t s1, cinv s1 -> cmu s1 = cmu s -> clpz s1 = clpz s ->
                (exists s2, c_next s1 = COk t s2 /\ cnrel s1 t s2) -> cpost b Q (f t s1)) ->
  cpost b Q (cbind (c_peek s) f).
Proof.
  intros Hi K. pose proof (cinv_peek s Hi) as Hp. destruct Hi as (Hi & Hs).
  unfold c_peek. destruct (Nat.leb_spec 3 (cpeek s)); [lia|].
  pose proof (p_peek_rel inlen NT eofchk _ Hi) as R.
  destruct (p_peek_tok (c_p s)) as [t p'] eqn:E. cbn [fst snd] in R. cbn [cbind].
  destruct R as [Ri Rpk Rl Rm Rn Rr].
  assert (Hi1 : cinv (set_p s p')) by (split; cbn [c_p c_scans set_p]; auto).
  apply K; cbn [c_p set_p]; auto.
  destruct (c_next_eq _ Hi1) as (t2 & s2 & E2 & R2). exists s2.
  assert (t2 = t).
  { unfold c_next in E2. cbn [c_p set_p] in E2. destruct (Nat.leb_spec 3 (p_peek p')); [discriminate|].
    rewrite Rn in E2. inversion E2; auto. }
  subst t2. auto.
Qed.

Lemma c_error_at_post {A} b (Q : A -> cst -> Prop) tk cls s :
  cinv s -> twf tk -> (clpz s <= b + 2)%Z -> cpost b Q (c_error_at inlen tk cls s).
Proof.
  intros Hi Hw Hl. unfold c_error_at. pose proof (twf_pos _ _ Hw).
  destruct (N.leb_spec (t_pos tk) inlen); [|lia]. cbn. auto.
Qed.
Lemma c_errorf_post {A} b (Q : A -> cst -> Prop) cls s :
  cinv s -> (clpz s <= b + 2)%Z -> cpost b Q (c_errorf inlen cls s).
Proof.
  intros Hi Hl. pose proof (cinv_peek s Hi) as Hp. unfold c_errorf.
  destruct (Nat.leb_spec 3 (cpeek s)); [lia|].
  apply c_error_at_post; auto. destruct Hi as (Hi & Hs). apply (pinv_err_tok _ _ _ _ Hi).
Qed.
Lemma c_unexp_post {A} b (Q : A -> cst -> Prop) tk ctx s :
  cinv s -> twf tk -> (clpz s <= b + 2)%Z -> cpost b Q (c_unexp inlen tk ctx s).
Proof. intros. unfold c_unexp. destruct (tis tk pit_Error); apply c_error_at_post; auto. Qed.

Lemma c_expect_post b typ ctx s :
  cinv s -> typ <> 0 -> ckap s = b ->
  cpost b (fun t s1 => cmu s = S (cmu s1) /\ (cpeek s1 <= 1)%nat /\ t = ccur s1 /\ t_typ t = typ /\ twf t
                       /\ c_scans s1 = c_scans s)
        (c_expect inlen typ ctx s).
Proof.
  intros Hi Hz Hb. unfold c_expect. apply c_next_step; auto. intros t s1 (R & Es) Hi1.
  destruct R. unfold tis. destruct (N.eqb_spec (t_typ t) typ) as [Et|Et].
  - assert (t_typ t <> 0) by congruence. cbn [cpost]. unfold kap in *. split; [auto|]. split; [lia|].
    repeat (apply conj); auto; lia.
  - apply c_unexp_post; auto. unfold kap in *; lia.
Qed.

Lemma tail1_ok v s : (1 <= length v)%nat -> exists r, tail1 v s = COk r s.
Proof. destruct v; cbn; [lia|eauto]. Qed.

Lemma lift_expr_post f prec s b :
  cinv s -> ckap s = b -> (cmu s < f)%nat ->
  cpost b (fun _ s' => (cmu s' < cmu s)%nat /\ c_scans s' = c_scans s) (lift_expr inlen parse_expr f prec s).
Proof.
  intros (Hi & Hs) Hb Hf. unfold lift_expr.
  pose proof (parse_expr_ok inlen NT eofchk f prec (c_p s) b Hi Hb Hf) as H.
  destruct (parse_expr f prec (c_p s)) as [n p'|t c p'|m|]; cbn [ppost] in H; try contradiction.
  - destruct H as (A & B & C). cbn [cpost]. unfold cinv. cbn [c_p c_scans set_p]. auto.
  - destruct H as (A & B & C).
    pose proof (twf_pos _ _ C) as Hpos.
    destruct (N.leb_spec (t_pos t) inlen); [|lia]. cbn [cpost]. unfold cinv. cbn [c_p c_scans set_p]. auto.
Qed.

(* ---------- parseQuotedExpr: its own scanner, always drained ---------- *)
Section Quoted.
Variable lexq : bstr -> list tok.
(* the scanner run on an attribute string yields well-formed items *)
Hypothesis Hlexq : forall str, Forall (ParserMeasure.twf (N.of_nat (length str))) (lexq str).

Lemma twf_shift il il' base t :
  ParserMeasure.twf il t -> base + t_pos t <= il' -> ParserMeasure.twf il' (shift_tok base t).
Proof.
  unfold ParserMeasure.twf, twfb, shift_tok. cbn [t_pos t_typ t_val]. intros H Hp.
  destruct (N.leb_spec (t_pos t) il); [|cbn in H; discriminate].
  destruct (N.leb_spec (base + t_pos t) il'); [|lia]. exact H.
Qed.

Lemma parse_quoted_expr_post str s b :
  cinv s -> ckap s = b ->
  cpost b (fun _ s' => c_p s' = c_p s) (parse_quoted_expr inlen lexq parse_expr expr_fuel str s).
Proof.
  intros Hi Hb. pose proof (cinv_peek s Hi) as Hp. destruct Hi as (Hi & Hs). unfold parse_quoted_expr.
  destruct (Nat.leb_spec 3 (cpeek s)) as [Hpk3|Hpk3]; [lia|]. cbv zeta.
  set (tk := err_tok (c_p s)). set (len := N.of_nat (length str)).
  set (inside := (len <=? t_pos tk) && (t_pos tk <=? inlen)).
  set (base := if inside then t_pos tk - len else 0).
  set (il := if inside then inlen else len).
  set (ts := map (shift_tok base) (lexq str)).
  assert (Hts : Forall (ParserMeasure.twf il) ts).
  { unfold ts. apply Forall_forall. intros x Hx. apply in_map_iff in Hx. destruct Hx as (y & Ey & Hy). subst x.
    pose proof (Hlexq str) as HF. rewrite Forall_forall in HF. pose proof (HF y Hy) as Hy'.
    pose proof (twf_pos _ _ Hy') as Hyp. fold len in Hyp.
    apply (twf_shift len); auto. unfold base, il. destruct inside eqn:Ein; [unfold inside in Ein|]; lia. }
  assert (Hi0 : ParserMeasure.pinv il 0 false (pst_init ts)).
  { apply pinv_init; [auto|lia|discriminate]. }
  pose proof (mu_init ts) as Hm.
  assert (Hf : (mu (pst_init ts) < expr_fuel ts)%nat) by (unfold expr_fuel; lia).
  pose proof (parse_expr_ok il 0 false (expr_fuel ts) 0 (pst_init ts) _ Hi0 eq_refl Hf) as HP.
  destruct (parse_expr (expr_fuel ts) 0 (pst_init ts)) as [n p'|t c p'|m|]; cbn [ppost] in HP; try contradiction.
  - destruct HP as (A & B & C). pose proof (pi_peek _ _ _ _ A).
    assert (Hrk : (p_recv p' <= length ts + 4)%nat) by (unfold kap, lpz in *; cbn [pst_init p_recv p_peek] in *; lia).
    cbn [cpost]. unfold cinv. cbn [c_p c_scans add_scan]. split; [split; [auto|constructor; [split; cbn; auto|auto]]|auto].
  - destruct HP as (A & B & C). pose proof (pi_peek _ _ _ _ A).
    assert (Hrk : (p_recv p' <= length ts + 4)%nat) by (unfold kap, lpz in *; cbn [pst_init p_recv p_peek] in *; lia).
    pose proof (twf_pos _ _ C) as Hpos.
    destruct (N.leb_spec (t_pos t) il); [|lia].
    cbn [cpost]. unfold cinv. cbn [c_p c_scans add_scan]. split; [split; [auto|constructor; [split; cbn; auto|auto]]|]. unfold kap in Hb. lia.
Qed.
End Quoted.

End Base.
