(* C19, parse half, scanner: unterminated constructs.  Whenever the scan of a block comment or of
   a string ends the scan (next state nil), the item it sent last is the error item positioned at
   the END of the input -- "the line where scanning stopped"; and a tag that meets the end of the
   input reports "unclosed tag" there.  With line_at_monotone the reported line lies between the
   line the construct was opened on and the last line of the input. *)
From Soy Require Import Model.Bytes Model.Utf8 Model.Outcome Model.Token Model.Lexer Generated.Tables Spec.ErrPos
  Model.Interp Proofs.LexerPrim Proofs.ErrTokProofs Proofs.LexErrPos.
From Coq Require Import ZifyBool Lia.
Open Scope Z_scope.

Section Eof.
Variable inp : bstr.
Notation ilen := (Z.of_nat (length inp)).
Variable base : Z.            (* 0 for lex / lexExpr; the offset in the enclosing file for lexExprAt *)
Hypothesis Hbase : 0 <= base.

Lemma emit_to_not_done t st l l' : st <> LDone -> emit_to inp ilen base t st l = Ok (LDone, l') -> False.
Proof. intros Hst H. unfold emit_to in H. destruct (emit inp ilen base t l); cbn in H; inversion H. congruence. Qed.

Lemma next_cases l :
  0 <= l_pos l ->
  exists r l1, next inp ilen l = Ok (r, l1) /\ l_out l1 = l_out l /\
    ((r = eof /\ l_pos l1 = l_pos l /\ ilen <= l_pos l) \/ (0 <= r /\ l_pos l < l_pos l1 <= ilen)).
Proof.
  intros Hp. pose proof (next_read inp l Hp) as H. destruct (next inp ilen l) as [[r l1]| | | | |]; cbn in H; try contradiction.
  destruct H as (w & -> & Hr). exists r, (scanned l (l_pos l + w) w (l_ticks l + 1)). split; [reflexivity|]. split; [reflexivity|].
  unfold read in Hr. unfold eof. cbn [scanned l_pos]. lia.
Qed.

Lemma errorf_at_end c l l' : l_pos l = ilen -> errorf base c l = Ok (LDone, l') ->
  l_out l' = err_item (base + ilen) c :: l_out l.
Proof.
  intros Hp H. unfold errorf in H. destruct (base + l_pos l <? 0); [discriminate|]. inversion H; subst. cbn [l_out].
  rewrite Hp. reflexivity.
Qed.

Theorem block_comment_error_at_end fuel : forall star l l',
  0 <= l_pos l <= ilen -> block_comment_loop inp ilen base fuel star l = Ok (LDone, l') ->
  l_out l' = err_item (base + ilen) e_comment_eof :: l_out l.
Proof using Hbase.
  induction fuel as [|f IH]; intros star l l' Hp H; [discriminate|].
  cbn [block_comment_loop] in H.
  destruct (next_cases l ltac:(lia)) as (r & l1 & Hn & Ho & Hc). rewrite Hn in H. cbn [bind] in H.
  destruct Hc as [(Hr & Hpos & Hle) | (Hr & Hpos)].
  - subst r. change (eof =? eof) with true in H. cbn iota in H. rewrite <- Ho. apply errorf_at_end; [lia|exact H].
  - assert (Heof : (r =? eof) = false) by (unfold eof; lia). rewrite Heof in H.
    destruct (r =? 42); [rewrite <- Ho; apply (IH true l1 l'); [lia | exact H]|].
    destruct ((r =? 47) && star).
    + exfalso. eapply emit_to_not_done; [|exact H]. discriminate.
    + rewrite <- Ho. apply (IH false l1 l'); [lia | exact H].
Qed.

Theorem string_error_at_end fuel : forall q l l',
  0 <= l_pos l <= ilen -> string_loop inp ilen base fuel q l = Ok (LDone, l') ->
  l_out l' = err_item (base + ilen) e_string_eof :: l_out l.
Proof using Hbase.
  induction fuel as [|f IH]; intros q l l' Hp H; [discriminate|].
  cbn [string_loop] in H.
  destruct (next_cases l ltac:(lia)) as (r & l1 & Hn & Ho & Hc). rewrite Hn in H. cbn [bind] in H.
  destruct Hc as [(Hr & Hpos & Hle) | (Hr & Hpos)].
  - subst r. change (eof =? eof) with true in H. cbn iota in H. rewrite <- Ho. apply errorf_at_end; [lia|exact H].
  - assert (Heof : (r =? eof) = false) by (unfold eof; lia). rewrite Heof in H.
    destruct (r =? 92).
    + destruct (next_cases l1 ltac:(lia)) as (r2 & l2 & Hn2 & Ho2 & Hc2). rewrite Hn2 in H. cbn [bind] in H.
      rewrite <- Ho, <- Ho2. apply (IH q l2 l'); [|exact H].
      destruct Hc2 as [(_ & Hp2 & _) | (_ & Hp2)]; lia.
    + destruct (r =? q).
      * exfalso. eapply emit_to_not_done; [|exact H]. discriminate.
      * rewrite <- Ho. apply (IH q l1 l'); [lia | exact H].
Qed.

(* a tag that meets the end of the input *)
Theorem unclosed_tag_at_end l :
  0 <= l_pos l -> ilen <= l_pos l ->
  exists l', lex_inside_tag inp ilen base l = Ok (LDone, l') /\ l_out l' = err_item (base + l_pos l) e_unclosed_tag :: l_out l.
Proof.
  intros Hp Hle. unfold lex_inside_tag, next. apply Z.leb_le in Hle. rewrite Hle. cbn [bind].
  change (gen_isSpaceEOL eof) with false. cbn iota.
  change (eof =? 47) with false. cbn iota. cbn [bind].
  repeat (match goal with |- context [if ?c then _ else _] =>
            let v := eval vm_compute in c in change c with v; cbn iota end).
  cbn [bind]. unfold errorf. cbn [l_pos]. destruct (base + l_pos l <? 0) eqn:E; [lia|].
  eexists. split; reflexivity.
Qed.
End Eof.

(* the line of an error item standing at the end of the input is the last line, which is not
   before the line the construct was opened on *)
Open Scope N_scope.
Theorem end_of_input_line src opened :
  opened <= N.of_nat (length src) ->
  line_at src (N.of_nat (length src)) = lines src /\ line_at src opened <= line_at src (N.of_nat (length src)).
Proof.
  intros H. split; [|apply line_at_monotone; exact H].
  unfold line_at, lines. rewrite Nat2N.id. f_equal.
  assert (Ht : take (length src) src = src) by (clear; induction src as [|c r IH]; cbn; [reflexivity | rewrite IH; reflexivity]).
  rewrite Ht. reflexivity.
Qed.
