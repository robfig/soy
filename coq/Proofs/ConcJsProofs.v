(* C09 — renders, JavaScript generation (Model/JsGen.v) and compilation
   (Model/Compile.v) as threads (Model/ConcJs.v): every such thread satisfies the
   ownership discipline of Model/Conc.v, so every family of them is race-free
   at the model's locations under every schedule and each computes what it
   computes alone (Proofs/ConcProofs.v). *)
From Coq Require Import List Arith Bool Lia.
From Soy Require Import Model.Bytes Model.Values Model.Outcome Model.Ast Model.Interp Model.JsGen Generated.JsGenTrace
  Model.Conc Model.ConcRender Model.ConcJs Proofs.ConcProofs Proofs.PurityProofs Proofs.ConcRenderProofs
  Proofs.ConcJsSimBase Generated.JsGenSim.
Import ListNotations.
Open Scope N_scope.

Section Solo.
Variables loc val res : Type.
Variable loc_eqb : loc -> loc -> bool.
Variable owner : loc -> option nat.
Notation prog := (prog loc val res).

Lemma solo_trace_read l (k : val -> prog) s : solo_trace loc_eqb (Read l k) s = Rd l :: solo_trace loc_eqb (k (s l)) s.
Proof. unfold solo_trace. cbn [exec]. destruct (exec loc_eqb (k (s l)) s) as [[r s'] t]. reflexivity. Qed.
Lemma solo_trace_write l v (k : prog) s : solo_trace loc_eqb (Write l v k) s = Wr l v :: solo_trace loc_eqb k (upd loc_eqb s l v).
Proof. unfold solo_trace. cbn [exec]. destruct (exec loc_eqb k (upd loc_eqb s l v)) as [[r s'] t]. reflexivity. Qed.
Lemma solo_result_read l (k : val -> prog) s : solo_result loc_eqb (Read l k) s = solo_result loc_eqb (k (s l)) s.
Proof. unfold solo_result. cbn [exec]. destruct (exec loc_eqb (k (s l)) s) as [[r s'] t]. reflexivity. Qed.
Lemma solo_result_write l v (k : prog) s : solo_result loc_eqb (Write l v k) s = solo_result loc_eqb k (upd loc_eqb s l v).
Proof. unfold solo_result. cbn [exec]. destruct (exec loc_eqb k (upd loc_eqb s l v)) as [[r s'] t]. reflexivity. Qed.

Lemma disc_done i r s : disciplined loc_eqb owner i (Done r : prog) s.
Proof. constructor. Qed.
Lemma disc_read i l (k : val -> prog) s :
  owner l = None \/ owner l = Some i -> disciplined loc_eqb owner i (k (s l)) s -> disciplined loc_eqb owner i (Read l k) s.
Proof. intros Ho Hk. unfold disciplined. rewrite solo_trace_read. constructor; assumption. Qed.
Lemma disc_write i l v (k : prog) s :
  owner l = Some i -> disciplined loc_eqb owner i k (upd loc_eqb s l v) -> disciplined loc_eqb owner i (Write l v k) s.
Proof. intros Ho Hk. unfold disciplined. rewrite solo_trace_write. constructor; assumption. Qed.
End Solo.

Lemma exec_prog_map {loc val res res'} (loc_eqb : loc -> loc -> bool) (f : res -> res') (p : prog loc val res) :
  forall s, exec loc_eqb (prog_map f p) s = (f (solo_result loc_eqb p s), solo_store loc_eqb p s, solo_trace loc_eqb p s).
Proof.
  induction p as [r|l k IH|l v k IH]; intros s; cbn [prog_map exec].
  - reflexivity.
  - rewrite IH. rewrite solo_result_read, solo_trace_read. unfold solo_store. cbn [exec].
    destruct (exec loc_eqb (k (s l)) s) as [[r s'] t]. reflexivity.
  - rewrite IH. rewrite solo_result_write, solo_trace_write. unfold solo_store. cbn [exec].
    destruct (exec loc_eqb k (upd loc_eqb s l v)) as [[r s'] t]. reflexivity.
Qed.

Section Tasks.
Variable CR : Type.
Notation cres := (cres CR).
Notation cprog := (cprog CR).
Notation ctask := (ctask CR).
Notation crender_prog := (crender_prog CR).
Notation cjsgen_prog := (cjsgen_prog CR).
Notation cjsgen_fine_prog := (cjsgen_fine_prog CR).

Lemma crender_exec rq (s : store rloc sval) :
  exec rloc_eqb (crender_prog rq) s = (CRRender (render_alone rq s), s, read4).
Proof.
  unfold crender_prog. rewrite exec_prog_map. unfold solo_result, solo_store, solo_trace.
  rewrite render_exec. reflexivity.
Qed.

Lemma c09_tlens_ok : jlens_ok c09_tlens.
Proof. split; intros; reflexivity. Qed.

(* THE TRACED GENERATOR IS THE MODEL: for every options, fuel and file its result is gen_file's
   (Generated/JsGenSim.v: one simulation lemma per definition of Model/JsGen.v, regenerated with it) *)
Theorem gen_file_traced_result o fuel name body :
  fst (gen_file_traced o fuel name body) = JsGen.gen_file o fuel name body.
Proof.
  unfold gen_file_traced.
  rewrite <- (gen_file_sim c09_tlens c09_tlens_ok o (JsGen.jinit_state, []) fuel name body).
  destruct (JT.gen_file c09_tlens o (jinit_state, []) fuel name body) as [r s]. reflexivity.
Qed.

(* THE ACCESSES OF THE GENERATOR: every entry of the traced generator's log is a look at a node of
   the syntax tree or an access to the generator's own record -- for every options, fuel and file,
   whether the generation succeeds or fails *)
Lemma jsgen_log_no_shared_write o fuel name body :
  Forall (fun a => jacc_shared_write a = false) (snd (gen_file_traced o fuel name body)).
Proof. apply Forall_forall. intros [p| |] _; reflexivity. Qed.

Lemma replay_disciplined i (k : cprog) :
  (forall s, disciplined rloc_eqb rowner i k s) -> forall t s, disciplined rloc_eqb rowner i (replay i t k) s.
Proof.
  intros Hk t. induction t as [|[p| |] r IH]; intros s; cbn [replay].
  - apply Hk.
  - apply disc_read; [left; reflexivity|apply IH].
  - apply disc_read; [right; reflexivity|apply IH].
  - apply disc_write; [reflexivity|apply IH].
Qed.
Lemma replay_result i t r : forall s, solo_result rloc_eqb (replay i t (Done r : cprog)) s = r.
Proof.
  induction t as [|[p| |] t' IH]; intros s; cbn [replay].
  - reflexivity.
  - rewrite solo_result_read. apply IH.
  - rewrite solo_result_read. apply IH.
  - rewrite solo_result_write. apply IH.
Qed.

Lemma cjsgen_disciplined i o fuel file s : disciplined rloc_eqb rowner i (cjsgen_prog i o fuel file) s.
Proof.
  unfold cjsgen_prog. apply disc_read; [left; reflexivity|]. apply disc_read; [left; reflexivity|].
  destruct (js_on o fuel file (s LFiles)); [|apply disc_done].
  apply disc_write; [reflexivity|apply disc_done].
Qed.
Lemma cjsgen_result i o fuel file s : solo_result rloc_eqb (cjsgen_prog i o fuel file) s = CRJs (js_on o fuel file (s LFiles)).
Proof.
  unfold cjsgen_prog. rewrite !solo_result_read. destruct (js_on o fuel file (s LFiles)); [|reflexivity].
  rewrite solo_result_write. reflexivity.
Qed.

Lemma cjsgen_fine_disciplined i o fuel file s : disciplined rloc_eqb rowner i (cjsgen_fine_prog i o fuel file) s.
Proof.
  unfold cjsgen_fine_prog. apply disc_read; [left; reflexivity|]. apply disc_read; [left; reflexivity|].
  destruct (s LFiles); try apply disc_done. destruct (nth_error fs file) as [f|]; [|apply disc_done].
  destruct (gen_file_traced o fuel (jf_name f) (jf_body f)) as [r tr].
  apply replay_disciplined. intros s'. apply disc_done.
Qed.
Lemma cjsgen_fine_result i o fuel file s :
  solo_result rloc_eqb (cjsgen_fine_prog i o fuel file) s = CRJs (js_fine_on o fuel file (s LFiles)).
Proof.
  unfold cjsgen_fine_prog, js_fine_on. rewrite !solo_result_read.
  destruct (s LFiles); try reflexivity. destruct (nth_error fs file) as [f|]; [|reflexivity].
  destruct (gen_file_traced o fuel (jf_name f) (jf_body f)) as [r tr]. cbn [fst]. apply replay_result.
Qed.
(* ... which is what the model returns *)
Lemma js_fine_on_model o fuel file vf : js_fine_on o fuel file vf = js_on o fuel file vf.
Proof.
  unfold js_fine_on, js_on. destruct vf; try reflexivity. destruct (nth_error fs file) as [f|]; [|reflexivity].
  now rewrite gen_file_traced_result.
Qed.

(* the fine-grained thread performs exactly the accesses the traced generator logged: one read of the
   file list per node visited, and reads / writes of its own location *)
Definition acc_of (i : nat) (a : jacc) : access rloc sval :=
  match a with JRdAst _ => Rd LFiles | JRdOwn => Rd (LOwn i) | JWrOwn => Wr (LOwn i) SClobbered end.
Lemma replay_trace i t r : forall s, solo_trace rloc_eqb (replay i t (Done r : cprog)) s = map (acc_of i) t.
Proof.
  induction t as [|[p| |] t' IH]; intros s; cbn [replay map acc_of].
  - reflexivity.
  - rewrite solo_trace_read. f_equal. apply IH.
  - rewrite solo_trace_read. f_equal. apply IH.
  - rewrite solo_trace_write. f_equal. apply IH.
Qed.

Lemma write_own_disciplined i (k : cprog) :
  (forall s, disciplined rloc_eqb rowner i k s) -> forall vs s, disciplined rloc_eqb rowner i (write_own i vs k) s.
Proof.
  intros Hk vs. induction vs as [|v r IH]; intros s; cbn [write_own]; [apply Hk|].
  apply disc_write; [reflexivity|apply IH].
Qed.
Lemma write_own_result i (k : cprog) r :
  (forall s, solo_result rloc_eqb k s = r) -> forall vs s, solo_result rloc_eqb (write_own i vs k) s = r.
Proof.
  intros Hk vs. induction vs as [|v vs' IH]; intros s; cbn [write_own]; [apply Hk|].
  rewrite solo_result_write. apply IH.
Qed.

Lemma ccompile_disciplined i (c : ccompile CR) s : disciplined rloc_eqb rowner i (ccompile_prog i c) s.
Proof. unfold ccompile_prog. apply write_own_disciplined. intros s'. apply disc_done. Qed.
Lemma ccompile_result i (c : ccompile CR) s : solo_result rloc_eqb (ccompile_prog i c) s = CRCompiled (cc_result c).
Proof. unfold ccompile_prog. apply write_own_result. intros s'. reflexivity. Qed.

Lemma ctask_disciplined i (t : ctask) s : disciplined rloc_eqb rowner i (ctask_prog i t) s.
Proof.
  destruct t as [rq|o fuel file|o fuel file|c]; cbn [ctask_prog].
  - unfold disciplined, solo_trace. rewrite crender_exec. repeat constructor.
  - apply cjsgen_disciplined.
  - apply cjsgen_fine_disciplined.
  - apply ccompile_disciplined.
Qed.
Lemma ctask_result i (t : ctask) s : solo_result rloc_eqb (ctask_prog i t) s = ctask_alone t s.
Proof.
  destruct t as [rq|o fuel file|o fuel file|c]; cbn [ctask_prog ctask_alone].
  - unfold solo_result. rewrite crender_exec. reflexivity.
  - apply cjsgen_result.
  - apply cjsgen_fine_result.
  - apply ccompile_result.
Qed.

Lemma nth_error_cprogs_from (ts : list ctask) : forall i0 i, nth_error (cprogs_from i0 ts) i = option_map (ctask_prog (i0 + i)) (nth_error ts i).
Proof.
  induction ts as [|t r IH]; intros i0 [|i]; cbn [cprogs_from nth_error option_map]; try reflexivity.
  - now rewrite Nat.add_0_r.
  - rewrite IH. now rewrite Nat.add_succ_r.
Qed.
Lemma nth_error_ctask_progs (ts : list ctask) i : nth_error (ctask_progs ts) i = option_map (ctask_prog i) (nth_error ts i).
Proof. unfold ctask_progs. now rewrite nth_error_cprogs_from. Qed.

Lemma ctasks_disciplined (ts : list ctask) s : all_disciplined rloc_eqb rowner (ctask_progs ts) s.
Proof.
  intros i p Hp. rewrite nth_error_ctask_progs in Hp. destruct (nth_error ts i) as [t|]; [|discriminate].
  inversion Hp; subst. apply ctask_disciplined.
Qed.

Theorem concurrent_ctasks_race_free :
  forall (ts : list ctask) (s0 : store rloc sval) (sched : list nat),
    ~ has_race (snd (run rloc_eqb sched (Build_config (ctask_progs ts) s0))).
Proof.
  intros ts s0 sched.
  apply (readonly_sharing_race_free rloc sval cres rloc_eqb rloc_eqb_spec rowner). apply ctasks_disciplined.
Qed.

Theorem concurrent_ctasks_sequential :
  forall (ts : list ctask) (s0 : store rloc sval) (sched : list nat) c tr,
    run rloc_eqb sched (Build_config (ctask_progs ts) s0) = (c, tr) ->
    (* registry, file trees, configuration, message bundle and the caller's maps are as they were *)
    (forall l, rowner l = None -> shared c l = s0 l)
    /\ forall i t, nth_error ts i = Some t ->
         (* a task that has finished returns what it returns alone on the initial store *)
         (forall r, nth_error (threads c) i = Some (Done r) -> r = ctask_alone t s0)
         (* it has finished once it was scheduled as often as it has accesses *)
         /\ ((length (solo_trace rloc_eqb (ctask_prog i t) s0) <= count_occ Nat.eq_dec sched i)%nat ->
               nth_error (threads c) i = Some (Done (ctask_alone t s0)))
         (* and what it has done so far is a prefix of what it does alone *)
         /\ proj i tr = firstn (count_occ Nat.eq_dec sched i) (solo_trace rloc_eqb (ctask_prog i t) s0).
Proof.
  intros ts s0 sched c tr Hrun.
  destruct (readonly_sharing_sequential rloc sval cres rloc_eqb rloc_eqb_spec rowner
              (ctask_progs ts) s0 sched c tr (ctasks_disciplined ts s0) Hrun) as (Hsh & _ & Hth).
  split; [exact Hsh|].
  intros i t Ht.
  assert (Hp : nth_error (ctask_progs ts) i = Some (ctask_prog i t)) by (rewrite nth_error_ctask_progs, Ht; reflexivity).
  destruct (Hth i _ Hp) as (Hproj & Hdone & Hfin).
  rewrite ctask_result in Hdone, Hfin.
  split; [|split; [exact Hfin|exact Hproj]].
  intros r Hr. apply (Hdone r Hr).
Qed.

(* any placement of accesses: ANY thread programs that, alone on the initial store, keep the ownership
   discipline and return the tasks' results are race-free under every schedule and return those results *)
Definition implements_task (s0 : store rloc sval) (i : nat) (p : cprog) (t : ctask) : Prop :=
  disciplined rloc_eqb rowner i p s0 /\ solo_result rloc_eqb p s0 = ctask_alone t s0.

Lemma ctask_prog_implements s0 i (t : ctask) : implements_task s0 i (ctask_prog i t) t.
Proof. split; [apply ctask_disciplined|apply ctask_result]. Qed.

Theorem any_access_placement :
  forall (ps : list cprog) (ts : list ctask) (s0 : store rloc sval) (sched : list nat) c tr,
    length ps = length ts ->
    (forall i p t, nth_error ps i = Some p -> nth_error ts i = Some t -> implements_task s0 i p t) ->
    run rloc_eqb sched (Build_config ps s0) = (c, tr) ->
    ~ has_race tr
    /\ (forall l, rowner l = None -> shared c l = s0 l)
    /\ forall i t r, nth_error ts i = Some t -> nth_error (threads c) i = Some (Done r) -> r = ctask_alone t s0.
Proof.
  intros ps ts s0 sched c tr Hlen Himp Hrun.
  assert (Hd : all_disciplined rloc_eqb rowner ps s0).
  { intros i p Hp. destruct (nth_error ts i) as [t|] eqn:Et.
    - exact (proj1 (Himp i p t Hp Et)).
    - apply nth_error_None in Et. assert (i < length ps)%nat by (apply (proj1 (nth_error_Some ps i)); intros Hn; discriminate (eq_trans (eq_sym Hn) Hp)). unfold cprog in *. lia. }
  split.
  - pose proof (readonly_sharing_race_free rloc sval cres rloc_eqb rloc_eqb_spec rowner ps s0 sched Hd) as Hnr.
    rewrite Hrun in Hnr. exact Hnr.
  - destruct (readonly_sharing_sequential rloc sval cres rloc_eqb rloc_eqb_spec rowner ps s0 sched c tr Hd Hrun)
      as (Hsh & Hl & Hth).
    split; [exact Hsh|]. intros i t r Ht Hr.
    destruct (nth_error ps i) as [p|] eqn:Ep.
    + destruct (Hth i p Ep) as (_ & Hdone & _). destruct (Hdone r Hr) as [-> _]. exact (proj2 (Himp i p t Ep Ht)).
    + apply nth_error_None in Ep. assert (i < length (threads c))%nat by (apply (proj1 (nth_error_Some (threads c) i)); intros Hn; discriminate (eq_trans (eq_sym Hn) Hr)). unfold cprog in *. lia.
Qed.

End Tasks.
