(* Source tie, family 81-gotrans-directives, soyhtml/directives.go directiveInsertWordBreaks: the whole function (the
   String() image of the value, args[0].(data.Int), the range over the RUNES of the input with the byte index, the
   three-way switch -- a space resets the count, a full count writes <wbr> and restarts at 1, otherwise count --,
   the second decoding at input[i:], template.HTMLEscape of input[i:i+size] into the bytes.Buffer, the result as a
   data.String) against Model/Directives.v's insert_word_breaks, with the function as gotrans translates it from
   the source of the tree under check.

   Parameters of the translation and their instances: utf8.DecodeRuneInString -> Model/Utf8.v decode_rune ([st_dec]);
   text/template.HTMLEscape -> Model/Escape.v tmpl_html_escape (a hand model of library code, tied by C03's / C16's
   correspondence); the value's String() -> a function with st_string v = Some s.  The loop's fuel len(input)+1 is
   shown sufficient.  The model walks BYTES with a skip counter and tests the first byte of a rune against ' ';
   Go tests the decoded rune: iwb_rune_space shows the two tests agree. *)
From Coq Require Import ZArith NArith Bool Lia ZifyBool List.
From Soy Require Import Model.Bytes Model.Utf8 Model.Outcome Model.Values Model.Escape Generated.Tables Model.Directives
  Proofs.BytesBase Proofs.SourceTieBase Proofs.SourceTieValue Proofs.SourceTieState Proofs.SourceTieUtf8 Proofs.SourceTieDirectives.
Import ListNotations.
Open Scope N_scope.

(* ch == ' ' on the decoded rune = the test on the rune's first byte *)
Lemma iwb_rune_space (c0 : N) (t : bstr) : (fst (decode_rune (c0 :: t)) =? 32) = (c0 =? 32).
Proof.
  destruct (N.ltb_spec c0 128) as [H|H].
  - unfold decode_rune. now replace (c0 <? 128) with true by lia.
  - pose proof (st_decode_high c0 t H). lia.
Qed.

Lemma iwb_esc_cons (c : N) (r : bstr) : esc1 c ++ tmpl_html_escape r = tmpl_html_escape (c :: r).
Proof. unfold esc1. cbn [tmpl_html_escape]. destruct (tmpl_entity c); reflexivity. Qed.

(* the bytes a rune still has to skip are copied escaped *)
Lemma iwb_skip (maxc : Z) (t : bstr) : forall (k : nat) (c : Z),
  iwb_aux maxc c k t = tmpl_html_escape (take k t) ++ iwb_aux maxc c 0 (drop k t).
Proof.
  induction t as [|x t IH]; intros [|k] c; try reflexivity.
  cbn [iwb_aux take drop]. rewrite IH, app_assoc, iwb_esc_cons. reflexivity.
Qed.

(* one rune of the model *)
Lemma iwb_step (maxc c : Z) (rest : bstr) : rest <> [] ->
  let w := snd (decode_rune rest) in
  iwb_aux maxc c 0 rest =
  if fst (decode_rune rest) =? 32 then tmpl_html_escape (take w rest) ++ iwb_aux maxc 0%Z 0 (drop w rest)
  else if (c >=? maxc)%Z then wbr ++ tmpl_html_escape (take w rest) ++ iwb_aux maxc 1%Z 0 (drop w rest)
  else tmpl_html_escape (take w rest) ++ iwb_aux maxc (c + 1)%Z 0 (drop w rest).
Proof.
  intros Hne w. pose proof (st_decode_width rest Hne) as Hw. fold w in Hw. destruct rest as [|c0 t]; [congruence|].
  rewrite iwb_rune_space. cbn [iwb_aux]. unfold rune_width. fold w.
  destruct w as [|w']; [lia|]. cbn [pred take drop].
  rewrite !iwb_skip with (k := w'). rewrite !app_assoc, !iwb_esc_cons.
  destruct (c0 =? 32); [reflexivity|]. destruct (c >=? maxc)%Z; [|reflexivity].
  rewrite <- !app_assoc. rewrite (app_assoc (esc1 c0)), iwb_esc_cons. reflexivity.
Qed.

(* the loop: at byte index i (a rune boundary), count c, bytes written so far out *)
Lemma iwb_loop_matches (s : bstr) (maxc : Z) :
  st_small (go_len s) ->
  forall (m i : nat) (c : Z) (out : bstr) (w0 : Z) (fuel : nat),
    (length s - i <= m)%nat -> (i <= length s)%nat -> (m < fuel)%nat -> (0 <= c <= Z.of_nat i)%Z ->
    exists (c' w' : Z),
      src_soyhtml_directiveInsertWordBreaks_loop1 fuel value st_dec tmpl_html_escape s maxc s c out (Z.of_nat i) w0 =
      Some (go_exit (c', out ++ iwb_aux maxc c 0 (drop i s), go_len s, w')).
Proof.
  intros Hs m. unfold st_small in Hs. induction m as [|m IH]; intros i c out w0 fuel Hm Hi Hf Hc.
  - assert (i = length s) as -> by lia. destruct fuel as [|fuel]; [lia|].
    cbn [src_soyhtml_directiveInsertWordBreaks_loop1].
    rewrite drop_whole. replace (Z.ltb _ _) with false by (unfold go_len; lia).
    exists c, w0. cbn [iwb_aux]. rewrite app_nil_r. reflexivity.
  - destruct (Nat.eq_dec i (length s)) as [->|Hne].
    { apply (IH (length s) c out w0 fuel); lia. }
    destruct fuel as [|fuel]; [lia|]. cbn [src_soyhtml_directiveInsertWordBreaks_loop1].
    replace (Z.ltb (Z.of_nat i) (go_len s)) with true by (unfold go_len; lia).
    rewrite !st_go_slice_drop by lia. cbn [go_bind].
    destruct (st_rune_at s i) as (r & w & Ed & Edec & Hrne & Hw1 & Hw2 & Hs1); [lia|].
    rewrite (iwb_step maxc c _ Hrne), Edec, Ed. cbn [fst snd]. cbv beta iota zeta.
    rewrite !(st_wrap64 (Z.of_nat i + Z.of_nat w)) by (unfold go_len in *; lia).
    rewrite st_go_slice_take_drop by lia. cbn [go_bind].
    replace (Z.of_nat i + Z.of_nat w)%Z with (Z.of_nat (i + w)) by lia.
    rewrite Hs1.
    (* the three cases are split on the MODEL's tests; the source's tests follow by lia *)
    destruct (N.eqb_spec r 32) as [E32|E32]; [|destruct (Z.geb_spec c maxc) as [Hge|Hlt]];
      st_decide_ifs; cbv beta iota zeta; rewrite ?(st_wrap64 (c + 1)) by (unfold go_len in *; lia);
      match goal with
      | |- context [src_soyhtml_directiveInsertWordBreaks_loop1 fuel _ _ _ _ _ _ ?c1 ?o1 _ _] =>
          destruct (IH (i + w)%nat c1 o1 (Z.of_nat w) fuel) as (c' & w' & H'); try lia
      end;
      exists c', w'; rewrite H'; rewrite <- !app_assoc; reflexivity.
Qed.

(* |insertWordBreaks:n on a value whose String() is s (whatever further arguments follow the first) *)
Theorem insert_word_breaks_matches_source (v : value) (st_string : value -> option bstr) (s : bstr) (n : Z) (more : list value) :
  st_string v = Some s -> st_small (go_len s) ->
  st_V src_soyhtml_directiveInsertWordBreaks_V st_string st_dec tmpl_html_escape v (VInt n :: more) =
  Some (VStr (insert_word_breaks s n)).
Proof.
  intros Hv Hs. assert (Hs' := Hs). unfold st_small in Hs'.
  unfold src_soyhtml_directiveInsertWordBreaks_V, src_soyhtml_directiveInsertWordBreaks. rewrite Hv. cbn [go_bind]. rewrite go_index_0. cbn [go_bind st_as_int_v]. cbv zeta.
  rewrite st_wrap64 by lia.
  destruct (iwb_loop_matches s n Hs (length s) 0 0%Z [] 0%Z (Z.to_nat (go_len s + 1))) as (c' & w' & Hl);
    try (unfold go_len; lia).
  change (Z.of_nat 0) with 0%Z in Hl. cbn [drop app] in Hl. rewrite Hl. reflexivity.
Qed.

(* ------------------------------------------------------------------ *)
(* directiveChangeNewlineToBr: escape first, then the newline regexp replaced by <br>, the result a data.String.
   template.HTMLEscapeString and newlinePattern.ReplaceAllString are parameters; the instances are Model/Escape.v's
   tmpl_html_escape and Model/Directives.v's nl2br (the matcher for the pattern below with the template "<br>"). *)
Lemma newline_pattern_is_the_modelled_one :
  src_soyhtml_newlinePattern_pattern = [92; 114; 92; 110; 124; 92; 114; 124; 92; 110].   (* \r\n|\r|\n *)
Proof. reflexivity. Qed.

Theorem change_newline_to_br_matches_source (v : value) (st_string : value -> option bstr) (s : bstr) (args : list value) :
  st_string v = Some s ->
  st_V src_soyhtml_directiveChangeNewlineToBr_V st_string tmpl_html_escape (st_re nl2br br) v args =
  Some (VStr (change_newline_to_br s)).
Proof. intros Hv. unfold src_soyhtml_directiveChangeNewlineToBr_V, src_soyhtml_directiveChangeNewlineToBr. rewrite Hv. reflexivity. Qed.
