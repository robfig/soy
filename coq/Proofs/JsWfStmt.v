(* C14, token grammar: every command node of an accepted file is written as a
   sequence of statements of Spec/JsSyntax.v. *)
From Soy Require Import Model.Bytes Model.Num Model.Values Model.Outcome Model.Ast Model.JsGen Generated.Tables
  Spec.JsSyntax Spec.JsShape Proofs.BytesBase Proofs.JsWfSplitBase Proofs.JsWfSplitNum Proofs.JsWfSplit Proofs.JsWfTail Proofs.JsWfLeaf
  Proofs.JsWfBase Proofs.JsWfFrame Proofs.JsWfMonad Proofs.JsWfExpr.
From Soy Require Proofs.JsGenInv.
From Coq Require Import ZifyBool Lia.
Open Scope N_scope.
#[local] Arguments assoc_s {A} k l : simpl never.

Lemma digits_ident_part ds : forallb is_digit ds = true -> forallb is_ident_part ds = true.
Proof.
  induction ds as [|c ds IH]; cbn; [reflexivity|]. intro H. apply andb_prop in H. destruct H as [H1 H2].
  unfold is_ident_part. rewrite H1, orb_true_r. cbn. auto.
Qed.

Lemma gen_name_ok v mid n : ident_ok v = true -> forallb is_ident_part mid = true -> name_ok (v ++ mid ++ t_us ++ dec_of_N n).
Proof.
  intros Hv Hm. apply name_ok_intro.
  - apply ident_ok_app; [exact Hv|]. rewrite forallb_app, Hm. cbn. apply digits_ident_part. apply dec_digits_all.
  - apply existsb_app_r. apply existsb_app_r. reflexivity.
Qed.
Lemma gen_name_ok0 v n : ident_ok v = true -> name_ok (v ++ t_us ++ dec_of_N n).
Proof. intro Hv. exact (gen_name_ok v [] n Hv eq_refl). Qed.

(* the buffer variable: an identifier, not reserved *)
Definition buf_ok (bf : bstr) : Prop := ident_ok bf = true /\ name_ok bf.
Lemma gen_buf_ok v n : ident_ok v = true -> buf_ok (v ++ t_us ++ dec_of_N n).
Proof.
  intro Hv. split; [|apply gen_name_ok0; exact Hv].
  apply ident_ok_app; [exact Hv|]. cbn. apply digits_ident_part. apply dec_digits_all.
Qed.
Lemma log_buf_ok bf : buf_ok bf -> buf_ok (bf ++ t_us).
Proof.
  intros [Hi _]. assert (H2 : ident_ok (bf ++ t_us) = true) by (apply ident_ok_app; [exact Hi|reflexivity]).
  split; [exact H2|]. apply name_ok_intro; [exact H2|]. apply existsb_app_r. reflexivity.
Qed.


Lemma assoc_s_aset {A} (l : list (bstr * A)) k v g :
  assoc_s k (aset l v g) = if bstr_eqb k v then Some g else assoc_s k l.
Proof.
  induction l as [|[k' v'] l IH]; cbn [aset].
  - unfold assoc_s. destruct (bstr_eqb k v); reflexivity.
  - destruct (bstr_eqb v k') eqn:E.
    + apply bstr_eqb_eq in E. subst k'. unfold assoc_s; fold (@assoc_s A). destruct (bstr_eqb k v); reflexivity.
    + unfold assoc_s; fold (@assoc_s A). destruct (bstr_eqb k k') eqn:E2.
      * apply bstr_eqb_eq in E2. subst k'. rewrite bstr_eqb_sym, E. reflexivity.
      * exact IH.
Qed.

Lemma ident_not_dot v k : ident_ok v = true -> (match k with 46 :: _ => True | _ => False end) -> bstr_eqb k v = false.
Proof.
  intros Hv Hk. destruct (bstr_eqb k v) eqn:E; [|reflexivity]. apply bstr_eqb_eq in E. subst k.
  destruct v as [|c r]; [contradiction|]. destruct c as [|p]; [contradiction|].
  repeat (destruct p as [p|p|]; try contradiction). cbn in Hv. discriminate.
Qed.

Section Scope.
Variable fmt : jsfmt.

Lemma frame_ok_nil : frame_ok [].
Proof. split; intros; discriminate. Qed.

Lemma frame_ok_bind f v g : frame_ok f -> ident_ok v = true -> name_ok g -> frame_ok (aset f v g).
Proof.
  intros [F1 F2] Hv Hg. split.
  - intros k g' Hk. rewrite assoc_s_aset. destruct (bstr_eqb k v); [intros E _; inversion E; subst; exact Hg|apply F1; exact Hk].
  - intros ix. rewrite assoc_s_aset, (ident_not_dot v jk_index Hv I). intros E Hn. destruct (F2 ix E Hn) as (N1 & lim & El & Nl).
    split; [exact N1|]. exists lim. rewrite assoc_s_aset, (ident_not_dot v jk_limit Hv I). auto.
Qed.

Lemma frame_ok_loop v d : ident_ok v = true -> name_ok (v ++ d) -> name_ok (v ++ t_limit ++ d) -> name_ok (v ++ t_index ++ d) ->
  frame_ok (aset (aset (aset (aset [] v (v ++ d)) jk_var v) jk_limit (v ++ t_limit ++ d)) jk_index (v ++ t_index ++ d)).
Proof.
  intros Hv N1 N2 N3. split.
  - intros k g Hk. rewrite !assoc_s_aset.
    rewrite (bstr_eqb_sym k jk_index), (ident_not_dot k jk_index Hk I).
    rewrite (bstr_eqb_sym k jk_limit), (ident_not_dot k jk_limit Hk I).
    rewrite (bstr_eqb_sym k jk_var), (ident_not_dot k jk_var Hk I).
    destruct (bstr_eqb k v); [intros E _; inversion E; subst; exact N1|discriminate].
  - intros ix. rewrite !assoc_s_aset. rewrite bstr_eqb_refl. intros E _. inversion E; subst. split; [exact N3|].
    exists (v ++ t_limit ++ d). split; [|exact N2]. rewrite ?assoc_s_aset. reflexivity.
Qed.
End Scope.

(* [norm_app] of Proofs/JsWfExpr.v (reassociate appends to the right, compute appends of conses), repeated *)
Ltac norm_app2 := repeat (progress (rewrite <- ?app_assoc; cbn [app])).
Ltac sfin := repeat match goal with H : buf_ok _ |- _ => destruct H end; apply stmtC_reach; intros e s; norm_app2; rchain; split; eauto.

Section Stmt.
Variable o : jopts.
Notation fmt := (o_fmt o).
Notation md := (is_module (o_fmt o)).
Variable w : node -> J unit.
Variable fk : nat.
Hypothesis IHe : forall n i, expr_chk fmt fk n = Some i -> expr_post0 o (w n) i.

Definition stmt_post0 (m : J unit) : Prop :=
  forall st st', scope_ok (j_scope st) -> called_ok fmt st -> buf_ok (j_buf st) -> m st = Ok (tt, st') ->
    exists cs, ext st st' cs /\ stmtC fmt cs /\ scope_ok (j_scope st') /\ j_buf st' = j_buf st /\ called_ok fmt st'.
Hypothesis IHs : forall n, stmt_chk fmt fk n = true -> stmt_post0 (w n).

(* the same, as a specification of the logic of Proofs/JsWfMonad.v *)
Notation sspec m := (forall b, buf_ok b -> tr (invS fmt b) m (fun _ cs => stmtC fmt cs) (invS fmt b)).
Lemma stmt_post0_tr m : stmt_post0 m <-> sspec m.
Proof.
  split.
  - intros H b Hb st [] st' (Hs & <- & Hk) Hr. destruct (H st st' Hs Hk Hb Hr) as (cs & E & C & S & B & K). exists cs. repeat split; auto.
  - intros H st st' Hs Hk Hb Hr. destruct (H _ Hb st tt st' (conj Hs (conj eq_refl Hk)) Hr) as (cs & E & C & S & B & K). exists cs. auto.
Qed.
Lemma IHsT n : stmt_chk fmt fk n = true -> sspec (w n).
Proof. intro Hc. apply stmt_post0_tr. exact (IHs n Hc). Qed.
(* an expression, and a block of one, between statements *)
Lemma IHeS n i b : expr_chk fmt fk n = Some i -> tr (invS fmt b) (w n) (fun _ cs => exprC fmt cs i) (invS fmt b).
Proof. intro Hc. apply tr_scope. apply expr_post0_tr. exact (IHe n i Hc). Qed.
Lemma t_blockS n i b : expr_chk fmt fk n = Some i -> tr (invS fmt b) (jblock w n) (fun bl cs => exprC fmt bl i /\ cs = []) (invS fmt b).
Proof. intro Hc. apply tr_scope. intros sc Hs. exact (t_block o w fk IHe n i b sc Hc Hs). Qed.
Lemma t_note_calledS key imp b : imp_ok fmt imp = true -> tr (invS fmt b) (note_called key imp) (fun _ cs => cs = []) (invS fmt b).
Proof. intro Hi. apply tr_scope. intros sc _. exact (t_note_called o key imp b sc Hi). Qed.
#[local] Hint Resolve IHsT IHeS t_blockS t_note_calledS : jwf.

Definition oke (n : node) : bool := expr_okb fmt fk n.
Lemma oke_some n : oke n = true -> exists i, expr_chk fmt fk n = Some i.
Proof. unfold oke, expr_okb. destruct (expr_chk fmt fk n); [eauto|discriminate]. Qed.

Lemma t_raw t b : buf_ok b -> tr (invS fmt b) (write_raw_text t) (fun _ cs => stmtC fmt cs) (invS fmt b).
Proof. intro Hb. unfold write_raw_text. tgo. sfin. Qed.
#[local] Hint Resolve t_raw : jwf.

Definition kept_ok (d : bstr * list node) : Prop := operand_text fmt (directive_js (fst d)) = true /\ forallb oke (snd d) = true.

Lemma dir_text name jn c : assoc_s name js_directives = Some (jn, c) -> directive_js name = jn.
Proof. unfold directive_js. intros ->. reflexivity. Qed.

Lemma t_scan dirs b : forall escape kept, forallb (dir_chk fmt fk) dirs = true -> Forall kept_ok kept ->
  operand_text fmt (directive_js n_escapeHtml) = true ->
  tr (invS fmt b) (print_scan o dirs escape kept) (fun res cs => Forall kept_ok (snd res) /\ cs = []) (invS fmt b).
Proof.
  induction dirs as [|d dirs IH]; intros escape kept Hall Hkept Hesc; cbn [print_scan].
  - tgo. auto.
  - cbn [forallb] in Hall. apply andb_prop in Hall. destruct Hall as [Hd Hl]. destruct d; try discriminate Hd. cbn [dir_chk] in Hd.
    destruct (assoc_s name js_directives) as [[jn cancel]|] eqn:Ea; [|discriminate]. apply andb_prop in Hd. destruct Hd as [Hargs Hd].
    destruct (bstr_eqb name n_id || bstr_eqb name n_noAutoescape) eqn:Eid; [auto|].
    cbn [orb] in Hd. apply andb_prop in Hd. destruct Hd as [Hop Himp].
    assert (Hnew : kept_ok (name, args)) by (split; cbn [fst snd]; [rewrite (dir_text _ _ _ Ea); exact Hop|exact Hargs]).
    assert (Hesc' : kept_ok (n_escapeHtml, [])) by (split; auto).
    tstep. eapply tr_post; [apply IH; auto|auto].
    apply Forall_app. split; [|auto]. destruct (bstr_eqb name n_changeNewlineToBr || _); [apply Forall_app|]; auto.
Qed.

Lemma operand_run t cl s : operand_text fmt t = true -> emits md [CText t] (MWant cl) s (MHave false) s [].
Proof.
  unfold operand_text. intro H. destruct (text_toks t) as [ts|] eqn:Et; [|discriminate].
  destruct (js_run md ts (MWant false) []) as [[[m1 s1] d1]|] eqn:Er; [|discriminate].
  destruct m1; try discriminate. destruct isint; try discriminate. destruct s1; try discriminate. destruct d1; try discriminate.
  eapply emits_toks1; [|apply expr_toks_run; exact Er|apply text_okb_tail; exact H]. cbn [lex_chunk]. unfold text_toks in Et.
  destruct (lex_text 0 LNormal t) as [[ts' m']|]; [|discriminate]. destruct m'; try discriminate. inversion Et; subst. reflexivity.
Qed.

Lemma t_opens l b : Forall kept_ok l ->
  tr (invS fmt b) (print_opens l)
    (fun _ cs => forall cl s, reach fmt cs (MWant cl) s (fun m' s' => (exists cl', m' = MWant cl') /\ s' = repeat KCall (List.length l) ++ s)) (invS fmt b).
Proof.
  induction 1 as [|[name args] l [Hop _] Hl IH]; cbn [print_opens].
  - tgo. intros cl s. apply reach_nil. eauto.
  - tgo. intros cl s. cbn [app List.length]. rewrite <- repeat_snoc.
    eapply reach_cons; [apply operand_run; exact Hop|]. eapply reach_cons; [esingle|]. rfrag.
Qed.

Lemma t_args args b : forallb oke args = true ->
  tr (invS fmt b) (print_args w args)
    (fun _ cs => forall i s, reach fmt cs (MHave i) (KCall :: s) (fun m' s' => (exists i', m' = MHave i') /\ s' = KCall :: s)) (invS fmt b).
Proof.
  induction args as [|a args IH]; intro Hall; cbn [print_args].
  - tgo. intros i s. apply reach_nil. eauto.
  - cbn [forallb] in Hall. apply andb_prop in Hall. destruct Hall as [Ha Hl]. destruct (oke_some _ Ha) as (ia & Hc). specialize (IH Hl).
    tgo. intros i s. cbn [app]. rchain.
Qed.
#[local] Hint Resolve t_scan t_opens t_args : jwf.

Lemma t_closes l b : Forall kept_ok l ->
  tr (invS fmt b) (print_closes w l)
    (fun _ cs => forall i s, reach fmt cs (MHave i) (repeat KCall (List.length l) ++ s) (fun m' s' => (exists i', m' = MHave i') /\ s' = s)) (invS fmt b).
Proof.
  induction 1 as [|[name args] l [_ Hargs] Hl IH]; cbn [print_closes].
  - tgo. intros i s. apply reach_nil. eauto.
  - cbn [snd] in Hargs. tgo; intros i s; cbn [app List.length repeat]; rchain.
Qed.
#[local] Hint Resolve t_closes : jwf.

Lemma t_print arg dirs b : buf_ok b -> oke arg = true -> forallb (dir_chk fmt fk) dirs = true -> operand_text fmt (directive_js n_escapeHtml) = true ->
  tr (invS fmt b) (visit_print o w arg dirs) (fun _ cs => stmtC fmt cs) (invS fmt b).
Proof.
  intros [Hi Hb] Harg Hdirs Hesc. unfold visit_print. destruct (oke_some _ Harg) as (ia & Hc).
  tstep. eapply tr_bind; [apply t_scan; [exact Hdirs|constructor|exact Hesc]|]. intros [escape kept] c1 [Fk ->]. cbn [snd] in Fk.
  assert (Fk' : Forall kept_ok (if escape =? 2 then kept else kept ++ [(n_escapeHtml, [])])).
  { destruct (escape =? 2); [exact Fk|]. apply Forall_app. split; [exact Fk|]. repeat constructor; auto. }
  pose proof (Forall_rev Fk') as Fr.
  tgo. rewrite rev_length in *. sfin.
Qed.

Lemma t_list ns b : buf_ok b -> forallb (stmt_chk fmt fk) ns = true -> tr (invS fmt b) (jwalk_list w ns) (fun _ cs => stmtC fmt cs) (invS fmt b).
Proof.
  intro Hb. induction ns as [|x ns IH]; intro Hall; cbn [jwalk_list].
  - tgo. apply stmtC_nil.
  - cbn [forallb] in Hall. apply andb_prop in Hall. destruct Hall as [Hx Hl]. specialize (IH Hl). tgo. apply stmtC_app; assumption.
Qed.

Lemma scope_ok_tl s : scope_ok s -> scope_ok (tl s).
Proof. destruct 1; [constructor|assumption]. Qed.
Lemma t_push b : tr (invS fmt b) jsc_push (fun _ cs => cs = []) (invS fmt b).
Proof. apply tr_mod; [|reflexivity]. intros st (Hs & Hb & Hk). repeat split; auto. constructor; [apply frame_ok_nil|exact Hs]. Qed.
Lemma t_pop b : tr (invS fmt b) jsc_pop (fun _ cs => cs = []) (invS fmt b).
Proof. apply tr_mod; [|reflexivity]. intros st (Hs & Hb & Hk). repeat split; auto. apply scope_ok_tl. exact Hs. Qed.
(* the buffer variable changes to a generated name, and back *)
Lemma t_set_buf b g : tr (invS fmt b) (jmod (set_buf g)) (fun _ cs => cs = []) (invS fmt g).
Proof. apply tr_mod; [|reflexivity]. intros st (Hs & Hb & Hk). repeat split; auto. Qed.
Lemma t_genname v b : ident_ok v = true -> tr (invS fmt b) (jsc_genname v) (fun g cs => buf_ok g /\ cs = []) (invS fmt b).
Proof.
  intro Hv. unfold jsc_genname. tstep. match goal with H : invS _ _ _ |- _ => destruct H as (Hs & Hb & Hk) end. cbv zeta.
  eapply tr_bind; [apply tr_mod with (P' := invS fmt b); [|reflexivity]|].
  - intros st (Hs1 & Hb1 & Hk1). repeat split; auto.
  - intros _ c ->. tgo. split; [apply gen_buf_ok; exact Hv|reflexivity].
Qed.
Lemma t_bind v g b : ident_ok v = true -> buf_ok g -> tr (invS fmt b) (jsc_bind v g) (fun _ cs => cs = []) (invS fmt b).
Proof.
  intros Hv [_ Hg]. unfold jsc_bind. tstep. match goal with H : invS _ _ _ |- _ => destruct H as (Hs & Hb & Hk) end. destruct (j_scope x) as [|f r] eqn:Es; [tgo|].
  eapply tr_post; [apply tr_mod with (P' := invS fmt b); [|reflexivity]|auto].
  intros st (Hs1 & Hb1 & Hk1). repeat split; auto. cbn. inversion Hs; subst. constructor; [apply frame_ok_bind; assumption|assumption].
Qed.
#[local] Hint Resolve t_list t_push t_pop t_set_buf t_genname t_bind : jwf.
Lemma t_makevar v b : ident_ok v = true -> tr (invS fmt b) (jsc_makevar v) (fun g cs => buf_ok g /\ cs = []) (invS fmt b).
Proof. intro Hv. unfold jsc_makevar. tgo. auto. Qed.
#[local] Hint Resolve t_makevar : jwf.

Lemma t_if cs b : buf_ok b -> forall first, if_shape oke (stmt_chk fmt fk) cs = true -> (first = true -> if_head cs = true \/ cs = []) ->
  tr (invS fmt b) (jif_conds w first cs)
    (fun _ c => forall m0 s, (if first then exists e, m0 = MStmt e else m0 = MStmt true) -> reach fmt c m0 s (at_stmt s)) (invS fmt b).
Proof.
  intro Hb. induction cs as [|x cs IH]; intros first Hsh Hhd; cbn [jif_conds].
  - tgo. intros m0 s Hm. apply reach_nil. split; [destruct first; [exact Hm|eauto]|reflexivity].
  - destruct x; try discriminate Hsh. cbn [if_shape] in Hsh. apply andb_prop in Hsh. destruct Hsh as [Hsh Hrest]. apply andb_prop in Hsh. destruct Hsh as [Hcond Hbody].
    specialize (IH false Hrest ltac:(discriminate)). cbv iota in IH.
    destruct cond as [cnd|].
    + destruct (oke_some _ Hcond) as (i & Hc). tgo; intros m0 s Hm; rpull Hm; norm_app2; rchain.
    + destruct first; [destruct (Hhd eq_refl) as [Hh|Hh]; discriminate Hh|]. destruct cs; [|discriminate Hcond]. clear IH. cbn [jif_conds].
      tgo. intros m0 s ->. norm_app2. rchain. split; eauto.
Qed.
#[local] Hint Resolve t_if : jwf.

Lemma t_loop body ifempty vd item vlen vidx ii b : buf_ok b -> stmt_chk fmt fk body = true ->
  match ifempty with Some x => stmt_chk fmt fk x | None => true end = true ->
  name_ok vd -> name_ok vlen -> name_ok vidx -> exprC fmt item ii ->
  tr (invS fmt b) (visit_loop w body ifempty vd item vlen vidx) (fun _ cs => stmtC fmt cs) (invS fmt b).
Proof. intros Hb Hbody Hie Nvd Nvlen Nvidx Citem. unfold visit_loop. destruct ifempty; tgo; sfin. Qed.

Lemma scope_push_loop v n s : ident_ok v = true -> scope_ok s ->
  scope_ok (aset (aset (aset (aset [] v (v ++ t_us ++ dec_of_N n)) jk_var v) jk_limit (v ++ t_limit ++ t_us ++ dec_of_N n)) jk_index (v ++ t_index ++ t_us ++ dec_of_N n) :: s).
Proof.
  intros Hv Hs. constructor; [|exact Hs]. apply frame_ok_loop; [exact Hv|apply gen_name_ok0; exact Hv|apply gen_name_ok; [exact Hv|reflexivity]|apply gen_name_ok; [exact Hv|reflexivity]].
Qed.

Lemma t_push_for_each v b : ident_ok v = true ->
  tr (invS fmt b) (jsc_push_for_each v)
    (fun '(vd, vlist, vlen, vidx) cs => (name_ok vd /\ name_ok vlist /\ name_ok vlen /\ name_ok vidx) /\ cs = []) (invS fmt b).
Proof.
  intro Hv. unfold jsc_push_for_each. tstep. match goal with H : invS _ _ _ |- _ => destruct H as (Hs & Hb & Hk) end. cbv zeta.
  eapply tr_bind; [apply tr_mod with (P' := invS fmt b); [|reflexivity]|].
  - intros st (Hs1 & Hb1 & Hk1). repeat split; auto. cbn. apply scope_push_loop; assumption.
  - intros _ c ->. tgo. repeat split; first [apply gen_name_ok0; exact Hv | apply gen_name_ok; [exact Hv|reflexivity]].
Qed.
Lemma t_push_for_range v b : ident_ok v = true ->
  tr (invS fmt b) (jsc_push_for_range v)
    (fun '(vd, vinit, vstep, vlen, vidx) cs => (name_ok vd /\ name_ok vinit /\ name_ok vstep /\ name_ok vlen /\ name_ok vidx) /\ cs = []) (invS fmt b).
Proof.
  intro Hv. unfold jsc_push_for_range. tstep. match goal with H : invS _ _ _ |- _ => destruct H as (Hs & Hb & Hk) end. cbv zeta.
  eapply tr_bind; [apply tr_mod with (P' := invS fmt b); [|reflexivity]|].
  - intros st (Hs1 & Hb1 & Hk1). repeat split; auto. cbn. apply scope_push_loop; assumption.
  - intros _ c ->. tgo. repeat split; first [apply gen_name_ok0; exact Hv | apply gen_name_ok; [exact Hv|reflexivity]].
Qed.
#[local] Hint Resolve t_push_for_each t_push_for_range : jwf.

Lemma t_foreach var lst body ifempty b : buf_ok b -> ident_ok var = true -> oke lst = true -> stmt_chk fmt fk body = true ->
  match ifempty with Some x => stmt_chk fmt fk x | None => true end = true ->
  tr (invS fmt b) (visit_foreach w var lst body ifempty) (fun _ cs => stmtC fmt cs) (invS fmt b).
Proof.
  intros Hb Hv Hl Hbody Hie. destruct (oke_some _ Hl) as (i & Hc). unfold visit_foreach.
  tgo.
  eapply tr_post; [eapply t_loop; eauto; intros cl s; echain|]. intros [] c5 C5. sfin.
Qed.

(* the implicit bounds of range() are integer literals: checked at any fuel that checks something *)
Lemma chk_int n i p z : expr_chk fmt fk n = Some i -> expr_chk fmt fk (NInt p z) = Some true.
Proof. destruct fk; [discriminate|reflexivity]. Qed.

Lemma t_for_range var args body ifempty b : buf_ok b -> ident_ok var = true ->
  match args with [_] | [_; _] | [_; _; _] => forallb oke args | _ => false end = true -> stmt_chk fmt fk body = true ->
  match ifempty with Some x => stmt_chk fmt fk x | None => true end = true ->
  tr (invS fmt b) (visit_for_range w var args body ifempty) (fun _ cs => stmtC fmt cs) (invS fmt b).
Proof.
  intros Hb Hv Hargs Hbody Hie. unfold visit_for_range.
  assert (Hsel : exists init limit incr i1 i2 i3,
            match args with [l] => Some (NInt 0 0, l, NInt 0 1) | [i; l] => Some (i, l, NInt 0 1) | [i; l; s] => Some (i, l, s) | _ => None end = Some (init, limit, incr)
            /\ expr_chk fmt fk init = Some i1 /\ expr_chk fmt fk limit = Some i2 /\ expr_chk fmt fk incr = Some i3).
  { destruct args as [|a1 [|a2 [|a3 [|a4 r]]]]; try discriminate Hargs; cbn [forallb] in Hargs;
      repeat match type of Hargs with (_ && _) = true => let X := fresh "X" in apply andb_prop in Hargs; destruct Hargs as [X Hargs] end;
      repeat match goal with X : oke _ = true |- _ => apply oke_some in X; destruct X as (? & ?) end;
      do 6 eexists; eauto 8 using chk_int. }
  destruct Hsel as (init & limit & incr & i1 & i2 & i3 & -> & C1 & C2 & C3).
  tgo.
  eapply tr_post; [eapply t_loop; eauto; intros cl s; echain|]. intros [] c5 C5. sfin.
Qed.

Notation label_ready m := (m = MSwStart \/ exists e, m = MStmt e).

Lemma t_values vs b : forallb oke vs = true ->
  tr (invS fmt b) (case_values w vs)
    (fun _ c => forall m d s, label_ready m ->
       emits md c m (KBlock (BSwitch d) :: s) (match vs with [] => m | _ => MStmt false end) (KBlock (BSwitch d) :: s) []) (invS fmt b).
Proof.
  induction vs as [|v vs IH]; intro Hall; cbn [case_values].
  - tgo. intros m d s _. apply emits_nil.
  - cbn [forallb] in Hall. apply andb_prop in Hall. destruct Hall as [Hv Hl]. destruct (oke_some _ Hv) as (i & Hc). specialize (IH Hl).
    tgo. intros m d s Hm. norm_app2. match goal with V : forall m d s, _ -> emits _ _ _ _ _ _ _ |- _ => pose proof (V (MStmt false) d s ltac:(eauto)) as Q end.
    destruct Hm as [->|[e ->]]; (eapply emits_cons0; [ssingle|]; eapply emits_cons0; [ssingle|]; eapply emits_app0; [esub|];
      eapply emits_cons0; [ssingle|]; eapply emits_cons0; [ssingle|]; destruct vs; exact Q).
Qed.
#[local] Hint Resolve t_values : jwf.

Lemma t_cases cs b : buf_ok b -> forall d, forallb (case_shape oke (stmt_chk fmt fk)) cs = true ->
  (Nat.b2n d + List.length (filter is_default_case cs) <= 1)%nat ->
  tr (invS fmt b) (jswitch_cases w cs)
    (fun _ c => forall m s, label_ready m ->
       reach fmt c m (KBlock (BSwitch d) :: s) (fun m' s' => label_ready m' /\ exists d', s' = KBlock (BSwitch d') :: s)) (invS fmt b).
Proof.
  intro Hb. induction cs as [|x cs IH]; intros d Hall Hcnt; cbn [jswitch_cases].
  - tgo. intros m s Hm. apply reach_nil. eauto.
  - cbn [forallb] in Hall. apply andb_prop in Hall. destruct Hall as [Hx Hl]. destruct x; try discriminate Hx. cbn [case_shape] in Hx.
    apply andb_prop in Hx. destruct Hx as [Hvs Hbody].
    specialize (IH (match values with [] => true | _ => d end) Hl).
    destruct values as [|v0 vs0].
    + assert (d = false) by (cbn [filter is_default_case List.length] in Hcnt; destruct d; [cbn in Hcnt; lia|reflexivity]). subst d.
      specialize (IH ltac:(cbn [filter is_default_case List.length Nat.b2n] in *; lia)).
      tgo. intros m s Hm. norm_app2. eapply reach_step; [match goal with V : forall m d s, _ -> emits _ _ _ _ _ _ _ |- _ => apply V; exact Hm end|]. destruct Hm as [->|[e ->]]; rchain.
    + specialize (IH ltac:(cbn [filter is_default_case] in Hcnt; exact Hcnt)).
      tgo. intros m s Hm. norm_app2. eapply reach_step; [match goal with V : forall m d s, _ -> emits _ _ _ _ _ _ _ |- _ => apply V; exact Hm end|]. rchain.
Qed.
#[local] Hint Resolve t_cases : jwf.

Lemma name_tail_run l : l <> [] -> forall s, js_run md (name_tokens l) MDot s = Some (MHave false, s, []).
Proof.
  induction l as [|p l IH]; intros Hne s; [congruence|]. destruct l as [|q r].
  - cbn [name_tokens]. destruct (tok_of_ident_cases p) as [(k & ->)| ->]; reflexivity.
  - change (name_tokens (p :: q :: r)) with (tok_of_ident p :: TP PDot :: name_tokens (q :: r)).
    specialize (IH ltac:(discriminate) s).
    destruct (tok_of_ident_cases p) as [(k & ->)| ->]; cbn [js_run js_step step_have cfg]; rewrite IH; reflexivity.
Qed.

Lemma dname_run nm cl s : dname_okb nm = true -> emits md [CName nm] (MWant cl) s (MHave false) s [].
Proof.
  unfold dname_okb. intro H. destruct (lex_name nm) as [ts|] eqn:El; [|discriminate]. destruct ts as [|t ts]; [discriminate|]. destruct t; try discriminate.
  eapply emits_toks1; [cbn [lex_chunk]; rewrite El; reflexivity| |tail_solve].
  unfold lex_name in El. destruct (forallb ident_ok (split_dots [] nm)); [|discriminate]. inversion El as [E2]. clear El.
  destruct (split_dots [] nm) as [|p [|q r]]; [discriminate E2| |].
  - cbn [name_tokens] in *. injection E2 as E3 E4. rewrite E3. reflexivity.
  - change (name_tokens (p :: q :: r)) with (tok_of_ident p :: TP PDot :: name_tokens (q :: r)) in *. injection E2 as E3 E4. rewrite E3.
    cbn [js_run js_step step_want step_have cfg]. rewrite (name_tail_run (q :: r) ltac:(discriminate) s). reflexivity.
Qed.

Definition accC (acc : list chunk) (m' : mode) : Prop := forall cl s, emits md acc (MWant cl) s m' (KObj :: KCall :: s) [].

Lemma key_run key s : ident_ok key = true -> forall cl, emits md [CName key; CText t_colon_sp] (MKey cl) (KObj :: s) (MWant false) (KObj :: s) [].
Proof.
  intros Hk cl. apply (emits_cons0 md _ _ _ _ (seq1 PColon None (MWant false)) (KObj :: s)); [|esingle].
  eapply emits_toks1; [cbn [lex_chunk]; rewrite (lex_name_ident _ Hk); reflexivity| |tail_solve].
  destruct (tok_of_ident_cases key) as [(k & ->)| ->]; reflexivity.
Qed.

Lemma t_params ps b : buf_ok b -> forall (first : bool) acc m0, forallb (param_shape oke (stmt_chk fmt fk)) ps = true -> accC acc m0 ->
  (if first then m0 = MKey true else exists j, m0 = MHave j) ->
  tr (invS fmt b) (jcall_params w first ps acc) (fun res cs => stmtC fmt cs /\ exists m1, accC res m1 /\ after_keys m1) (invS fmt b).
Proof.
  intro Hb. induction ps as [|p ps IH]; intros first acc m0 Hall Hacc Hm0; cbn [jcall_params].
  - tgo. split; [apply stmtC_nil|]. exists m0. split; [exact Hacc|]. destruct first; [left|right]; exact Hm0.
  - cbn [forallb] in Hall. apply andb_prop in Hall. destruct Hall as [Hp Hl]. cbv zeta.
    assert (Hacc1 : forall cl s, exists c, emits md (if first then acc else acc ++ [CText t_comma_sp]) (MWant cl) s (MKey c) (KObj :: KCall :: s) []).
    { intros cl s. destruct first.
      - subst m0. exists true. apply Hacc.
      - destruct Hm0 as (j & ->). exists false. eapply emits_app0; [apply Hacc|]. esingle. }
    destruct p; try discriminate Hp; cbn [param_shape] in Hp; apply andb_prop in Hp; destruct Hp as [Hkey Hv].
    + (* value *)
      destruct (oke_some _ Hv) as (i & Hc). tstep.
      eapply tr_post; [apply (IH false _ (MHave i) Hl); [|eauto]|intros res c (C & m1 & A & Hm); cbn [app]; eauto].
      intros cl s. destruct (Hacc1 cl s) as (c & Q). eapply emits_app0; [exact Q|]. eapply emits_app0; [apply key_run; exact Hkey|]. esub.
    + (* content *)
      tstep. tstep. pose proof (proj2 H1) as Hg. tstep. tstep. tstep. tstep.
      eapply tr_post; [apply (IH false _ (MHave false) Hl); [|eauto]|].
      * intros cl s. destruct (Hacc1 cl s) as (k & Q). eapply emits_app0; [exact Q|]. change [CName key; CText t_colon_sp; CName x0] with ([CName key; CText t_colon_sp] ++ [CName x0]).
        eapply emits_app0; [apply key_run; exact Hkey|]. esingle.
      * intros res c' (C & m1 & A & Hm). split; [|eauto]. norm_app2. match goal with |- stmtC _ (?a :: ?b :: ?c :: ?d :: ?e :: ?r) => change (stmtC fmt ([a; b; c; d; e] ++ r)) end.
        rewrite app_assoc. apply stmtC_app; [|exact C]. sfin.
Qed.

Lemma t_call name alldata data params b : buf_ok b ->
  dname_okb (fmt_bytes (fmt_call_name fmt) name) = true -> imp_ok fmt (fmt_chunks (fmt_call_text fmt) name) = true ->
  match data with Some d => oke d | None => true end = true -> forallb (param_shape oke (stmt_chk fmt fk)) params = true ->
  tr (invS fmt b) (visit_call o w name alldata data params) (fun _ cs => stmtC fmt cs) (invS fmt b).
Proof.
  intros Hb Hname Himp Hdata Hps. unfold visit_call. destruct Hb as [Hb1 Hb2].
  (* the data argument *)
  assert (D0 : tr (invS fmt b) (match data with Some d => jblock w d | None => jret (if alldata then [CText t_opt_data] else [CText t_empty_obj]) end)
                 (fun d0 cs => (exists i0, exprC fmt d0 i0) /\ cs = []) (invS fmt b)).
  { destruct data as [d|]; [destruct (oke_some _ Hdata) as (i & Hc)|]; tgo; (split; [|reflexivity]); [eauto|].
    exists false. intros cl s. destruct alldata; esingle. }
  eapply tr_bind; [exact D0|]. intros d0 c0 [(i0 & C0) ->].
  (* the parameters *)
  assert (D1 : tr (invS fmt b) (match params with
                                | [] => jret d0
                                | _ => ps <~ jcall_params w true params ([CText t_augment] ++ d0 ++ [CText t_augment_mid]) ;; jret (ps ++ [CText t_augment_end])
                                end) (fun d1 cs => stmtC fmt cs /\ exists i1, exprC fmt d1 i1) (invS fmt b)).
  { destruct params as [|p0 ps0] eqn:Eps; [tgo; split; [apply stmtC_nil|eauto]|]. rewrite <- Eps in *. clear Eps p0 ps0.
    eapply tr_bind; [apply (t_params params b (conj Hb1 Hb2) true _ (MKey true) Hps); [|reflexivity]|].
    - intros cl s. norm_app2. eapply emits_cons0; [esingle|]. eapply emits_app0; [apply C0|]. esingle.
    - intros ps' c1 (C1 & m1 & A1 & Hm1). tgo. rewrite app_nil_r. split; [exact C1|]. exists false.
      intros cl s. eapply emits_app0; [apply A1|]. eapply emits_toks1; [vm_compute; reflexivity| |tail_solve]. destruct Hm1 as [->|[j ->]]; reflexivity. }
  eapply tr_bind; [exact D1|]. intros d1 c1 (C1 & i1 & E1).
  tgo. cbn [app]. apply stmtC_app; [exact C1|]. apply stmtC_reach. intros e s. norm_app2.
  eapply reach_cons; [ssingle|]. eapply reach_cons; [ssingle|]. eapply reach_cons; [ssingle|].
  eapply reach_cons; [apply dname_run; exact Hname|]. rchain. split; eauto.
Qed.

Inductive mq_ok : node -> Prop :=
| mq_raw p t : stmt_chk fmt fk (NRawText p t) = true -> mq_ok (NRawText p t)
| mq_ph p nm bd : stmt_chk fmt fk bd = true -> mq_ok (NMsgPlaceholder p nm bd)
| mq_plural p vn v cases dflt : oke v = true -> Forall mq_ok cases -> Forall mq_ok dflt -> mq_ok (NMsgPlural p vn v cases dflt)
| mq_case p z body : Forall mq_ok body -> mq_ok (NMsgPluralCase p z body)
| mq_list p l : Forall mq_ok l -> mq_ok (NList p l)
| mq_other n : match n with NRawText _ _ | NMsgPlaceholder _ _ _ | NMsgPlural _ _ _ _ _ | NMsgPluralCase _ _ _ | NList _ _ => False | _ => True end -> mq_ok n.

Lemma mq_chk_ok f : forall n, mq_chk oke (stmt_chk fmt fk) f n = true -> mq_ok n.
Proof.
  induction f as [|f IH]; intros n H; [discriminate H|].
  assert (IHl : forall l, forallb (mq_chk oke (stmt_chk fmt fk) f) l = true -> Forall mq_ok l).
  { intros l Hl. rewrite forallb_forall in Hl. apply Forall_forall. intros x Hx. apply IH. apply Hl. exact Hx. }
  destruct n; cbn [mq_chk] in H; try (apply mq_other; exact I).
  - apply mq_list. apply IHl. exact H.
  - apply mq_raw. exact H.
  - apply mq_ph. exact H.
  - apply andb_prop in H. destruct H as [H H3]. apply andb_prop in H. destruct H as [H1 H2]. apply mq_plural; auto.
  - apply mq_case. apply IHl. exact H.
Qed.

Notation sT := (fun (_ : unit) cs => stmtC fmt cs).
(* one case of a plural: a label, the statements, break *)
Notation caseT := (fun (_ : unit) c => forall m d s, label_ready m ->
  reach fmt c m (KBlock (BSwitch d) :: s) (fun m' s' => m' = MStmt false /\ s' = KBlock (BSwitch d) :: s)).
Notation casesT := (fun (_ : unit) c => forall m d s, label_ready m ->
  reach fmt c m (KBlock (BSwitch d) :: s) (fun m' s' => label_ready m' /\ s' = KBlock (BSwitch d) :: s)).

Lemma t_plural_case ch c b : (forall l, Forall mq_ok l -> tr (invS fmt b) (ch l) sT (invS fmt b)) -> mq_ok c ->
  tr (invS fmt b) (plural_case_body ch c) caseT (invS fmt b).
Proof.
  intros Hch Hc. destruct Hc; cbn [plural_case_body]; try solve [tgo].
  - tgo. intros m d s Hm. rpull Hm; norm_app2; rchain; auto.
  - destruct n; try contradiction; cbn [plural_case_body]; tgo.
Qed.
#[local] Hint Resolve t_plural_case : jwf.

Lemma t_children fuel b : buf_ok b -> forall l, Forall mq_ok l -> tr (invS fmt b) (jmsg_children w fuel l) sT (invS fmt b).
Proof.
  intro Hb. induction fuel as [|f IH]; intros l Hl; cbn [jmsg_children]; [tgo|].
  destruct Hl as [|x r Hx Hr]; [tgo; apply stmtC_nil|].
  eapply tr_bind with (T1 := sT) (P1 := invS fmt b); [|intros [] c1 C1; eapply tr_post; [apply IH; exact Hr|]; intros [] c2 C2; apply stmtC_app; assumption].
  destruct Hx; try solve [tgo; assumption || apply stmtC_nil].
  - (* plural *)
    destruct (oke_some _ H) as (i & Hc). tgo.
    eapply tr_bind with (T1 := casesT) (P1 := invS fmt b).
    { induction H0 as [|c0 cs0 Hc0 Hcs IHc]; cbv beta iota fix; tgo; intros m d s Hm.
      - apply reach_nil. auto.
      - norm_app2. rchain; eauto. }
    intros [] c6 R6. tgo. sfin.
  - destruct n; try contradiction; tgo; apply stmtC_nil.
Qed.

Lemma find_ph_ok fuel : forall q name bd, Forall mq_ok q -> jfind_placeholder fuel q name = Ok (Some bd) -> stmt_chk fmt fk bd = true.
Proof.
  induction fuel as [|f IH]; intros q name bd Hq H; [discriminate H|]. cbn [jfind_placeholder] in H.
  destruct q as [|x r]; [discriminate H|]. inversion Hq as [|? ? Hx Hr]; subst.
  inversion Hx; subst.
  - eapply IH; eauto.
  - destruct (bstr_eqb nm name); [inversion H; subst; assumption|eapply IH; eauto].
  - eapply IH; [|exact H]. apply Forall_app. split; [exact Hr|]. apply Forall_app. split; [assumption|]. constructor; [apply mq_list; assumption|constructor].
  - eapply IH; [|exact H]. apply Forall_app. split; [exact Hr|]. constructor; [apply mq_list; assumption|constructor].
  - eapply IH; [|exact H]. apply Forall_app. split; assumption.
  - destruct x; try contradiction; eapply IH; eauto.
Qed.

Lemma find_plural_ok body var x : Forall mq_ok body -> jfind_plural body var = Some x ->
  exists p vn v cases dflt, x = NMsgPlural p vn v cases dflt /\ oke v = true.
Proof.
  induction body as [|y body IH]; intros Hb H; [discriminate H|]. inversion Hb as [|? ? Hy Hr]; subst. cbn [jfind_plural] in H.
  destruct y; try (apply IH; assumption).
  destruct (bstr_eqb varname var); [|apply IH; assumption]. inversion H; subst. inversion Hy; subst; [|contradiction]. eauto 10.
Qed.

Lemma t_part body b : buf_ok b -> Forall mq_ok body -> forall p, tr (invS fmt b) (jeval_part w body p) sT (invS fmt b).
Proof.
  intros Hb Hbody. induction p as [t|name|var cases IHc] using JsGenInv.jmpart_ind'; cbn [jeval_part].
  - tgo. assumption.
  - eapply tr_bind with (T1 := fun ph cs => (forall bd, ph = Some bd -> stmt_chk fmt fk bd = true) /\ cs = []) (P1 := invS fmt b).
    { intros st ph st' Hp Hr. unfold jlift in Hr. destruct (jfind_placeholder _ _ _) eqn:Ef; inversion Hr; subst.
      exists []. split; [apply ext_refl; reflexivity|]. split; [|exact Hp]. split; [|reflexivity]. intros bd ->. exact (find_ph_ok _ _ _ _ Hbody Ef). }
    intros [bd|] c [Hph ->]; [specialize (Hph bd eq_refl)|]; tgo. assumption.
  - destruct (jfind_plural body var) as [x|] eqn:Ef; [|tgo].
    destruct (find_plural_ok _ _ _ Hbody Ef) as (p0 & vn & v & cs0 & dflt & -> & Hv). destruct (oke_some _ Hv) as (i & Hc).
    tgo. eapply tr_bind with (T1 := casesT) (P1 := invS fmt b).
    { generalize 0. induction IHc as [|c1 cs1 Hc1 Hcs1 IH1]; intro n0; cbv beta iota fix; tgo.
      - intros m d s Hm. apply reach_nil. auto.
      - eapply tr_bind with (T1 := sT) (P1 := invS fmt b).
        { induction Hc1; cbv beta iota fix; tgo; [apply stmtC_nil|apply stmtC_app; assumption]. }
        intros [] cb Cb. tgo. intros m d s Hm. rpull Hm; norm_app2; rchain; eauto. }
    intros [] c6 R6. tgo. sfin.
Qed.
#[local] Hint Resolve t_children t_part : jwf.

Lemma t_msg id body b : buf_ok b -> forallb (mq_chk oke (stmt_chk fmt fk) fk) body = true -> tr (invS fmt b) (visit_msg o w id body) sT (invS fmt b).
Proof.
  intros Hb Hc.
  assert (Hbody : Forall mq_ok body). { rewrite forallb_forall in Hc. apply Forall_forall. intros x Hx. eapply mq_chk_ok. apply Hc. exact Hx. }
  unfold visit_msg. destruct (o_msgs o) as [msgs|]; [destruct (assoc_n id msgs) as [parts|]|]; auto with jwf.
  induction parts as [|p ps IH]; cbn [jeval_parts]; tgo; [apply stmtC_nil|apply stmtC_app; assumption].
Qed.

#[local] Hint Resolve t_print t_foreach t_for_range t_call t_msg : jwf.

Lemma stmt_body n : stmt_chk fmt (S fk) n = true -> stmt_post0 (jwalk_body o w n).
Proof.
  intro Hc. apply stmt_post0_tr. intros b Hb. unfold jwalk_body. tstep. tstep.
  destruct n; try discriminate Hc; cbn [jwalk_node]; cbn [stmt_chk] in Hc; fold oke in Hc;
    repeat match type of Hc with (_ && _) = true => let H := fresh "Hc" in apply andb_prop in Hc; destruct Hc as [Hc H] end.
  (* list, raw text, print, debugger, if, call, let content, msg, msg html tag: every action is a known one *)
  all: try solve [tgo; sfin].
  - (* css *) destruct expr as [x3|]; [destruct (oke_some _ Hc) as (i & Hi)|]; pose proof Hb as [? ?]; tgo; sfin.
  - (* log *) pose proof (log_buf_ok _ Hb) as Hn. pose proof Hn as [Hn1 Hn2]. tgo.
    eapply tr_post; [apply tr_mod with (P' := invS fmt b); [|reflexivity]|].
    + intros st (Hs & Hbf & Hk). repeat split; auto. cbn. rewrite Hbf. unfold t_us. apply removelast_last.
    + intros [] c' ->. sfin.
  - (* for *) destruct n1; cbn [for_list_shape] in Hc2; tgo; sfin.
  - (* switch *) destruct (oke_some _ Hc) as (i & Hi).
    pose proof (t_cases cases b Hb false Hc1 ltac:(cbn [Nat.b2n]; apply Nat.leb_le in Hc0; lia)). tgo. sfin.
  - (* let value *) destruct (oke_some _ Hc0) as (i & Hi). tgo. sfin.
Qed.
End Stmt.

(* every command node of a checked file, at every fuel of the walker *)
Theorem stmt_walk o : forall fk n, stmt_chk (o_fmt o) fk n = true -> forall g, stmt_post0 o (jwalk o g n).
Proof.
  induction fk as [|fk IH]; intros n Hc g; [discriminate Hc|].
  destruct g as [|g]; [intros st st' _ _ _ H; discriminate H|].
  change (jwalk o (S g)) with (jwalk_body o (jwalk o g)). apply stmt_body with (fk := fk); [| |exact Hc].
  - intros n' i' Hc'. exact (expr_walk o fk n' i' Hc' g).
  - intros n' Hc'. apply IH. exact Hc'.
Qed.
