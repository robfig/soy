(* C17, scanner half for template bodies, middle layer: the relation [lb17_sim] between the scanner's items and the
   Spec's (types and texts; positions not compared),
   [lb17_go] (a run of the state machine between two states, with the items it sends) and its instances for the
   tag steps of LexBodyC17.v, [lb17_fin] (the end of a body: the next tag or EOF). *)
From Soy Require Import Model.Bytes Model.Utf8 Model.Num Model.Values Model.Outcome Model.Ast Model.Token Model.NumLit Model.Quote
  Model.AstPrint Model.AstPrintCmd Generated.Tables Model.Lexer Spec.ExprSyntax Spec.CmdSyntax Spec.Text Spec.TextBody
  Proofs.Utf8Proofs Proofs.ExprParserProofs Proofs.LexerPrim Proofs.LexerStates Proofs.LexerProofs
  Proofs.LexTokens Proofs.LexNumbers Proofs.LexStrings Proofs.LexExpr Proofs.LexPrint Proofs.LexPrintMain Proofs.LexPrintTop
  Proofs.LexBodyText Proofs.LexBodyTop Proofs.LexBodySeg Proofs.LexBodyCmd Proofs.LexPrintCmd.
From Soy Require Import Proofs.LexBodyC17.
From Coq Require Import ZifyBool Lia.
Open Scope Z_scope.

(* same type and text (positions are not compared) *)
Definition lb17_sim (a b : tok) : Prop := t_typ a = t_typ b /\ t_val a = t_val b.
(* between l and l' the items ts were sent *)
Definition lb17_sent (ts : list tok) (l l' : lx) : Prop :=
  exists its, l_out l' = rev its ++ l_out l /\ Forall2 lb17_sim its ts.

Lemma lb17_sent_nil l l' : l_out l' = l_out l -> lb17_sent [] l l'.
Proof. intros H. exists []. split; [exact H|constructor]. Qed.

Lemma lb17_sent_app ts1 ts2 l l1 l2 : lb17_sent ts1 l l1 -> lb17_sent ts2 l1 l2 -> lb17_sent (ts1 ++ ts2) l l2.
Proof.
  intros (i1 & H1 & F1) (i2 & H2 & F2). exists (i1 ++ i2). split; [|apply Forall2_app; assumption].
  rewrite H2, H1, rev_app_distr, <- app_assoc. reflexivity.
Qed.

Lemma lb17_sim_map : forall its ts, map (fun it => (t_typ it, t_val it)) its = map tv ts -> Forall2 lb17_sim its ts.
Proof.
  induction its as [|a its IH]; intros [|b0 ts] H; cbn [map] in H; try discriminate; [constructor|].
  injection H as Ht Hv Hr. constructor; [|apply IH; exact Hr]. split; [exact Ht|exact Hv].
Qed.

Lemma lb17_sent_sends ts l l' : sends (map tv ts) l l' -> lb17_sent ts l l'.
Proof. intros H. destruct (sends_out _ _ _ H) as (its & Ho & Hm & _). exists its. split; [exact Ho|apply lb17_sim_map; exact Hm]. Qed.

Lemma lb17_sim_tv : forall its ts, Forall2 lb17_sim its ts -> map tv its = map tv ts.
Proof. induction 1 as [|a b0 its ts [Ht Hv] _ IH]; [reflexivity|]. cbn [map]. unfold tv at 1 3. rewrite Ht, Hv, IH. reflexivity. Qed.

Section Go.
Variable uni_letter uni_digit : Z -> bool.
Hypothesis letter_ascii : forall c, (c < 128)%N -> uni_letter (Z.of_N c) = ((65 <=? c) && (c <=? 90) || (97 <=? c) && (c <=? 122))%N.
Hypothesis digit_ascii : forall c, (c < 128)%N -> uni_digit (Z.of_N c) = digit_b c.
Hypothesis letter_eof : uni_letter (-1) = false.
Hypothesis digit_eof : uni_digit (-1) = false.
Variable inp : bstr.
Notation L := (lexes uni_letter uni_digit inp 0).
Notation W lem := (lem uni_letter uni_digit letter_ascii digit_ascii letter_eof digit_eof inp).
Notation steps := (steps uni_letter uni_digit inp 0).
Notation span := (span inp).
Notation ilen := (Z.of_nat (length inp)).

(* from state st at l the machine reaches st' at l', having sent ts *)
Definition lb17_go (st : lstate) (l : lx) (st' : lstate) (l' : lx) (ts : list tok) : Prop :=
  exists k, steps k st l = Ok (st', l') /\ lb17_sent ts l l'.

Lemma lb17_go_trans st l st1 l1 st2 l2 ts1 ts2 :
  lb17_go st l st1 l1 ts1 -> lb17_go st1 l1 st2 l2 ts2 -> lb17_go st l st2 l2 (ts1 ++ ts2).
Proof.
  intros (k1 & H1 & S1) (k2 & H2 & S2). exists (k1 + k2)%nat. split; [rewrite (steps_app _ _ _ _ k1 k2 _ _ _ _ H1); exact H2|].
  eapply lb17_sent_app; eassumption.
Qed.

(* "{" kw *)
Lemma lb17_go_open l name t q p s : In (name, t) lb17_open_kws -> span l [] ([123%N] ++ name ++ s) -> stops s ->
  exists l', lb17_go LLeftDelim l LInsideTag l' [tk pit_LeftDelim q [123%N]; kw t p] /\ span l' [] s /\ l_dd l' = false /\ last_typ l' = t.
Proof.
  pose proof (conj letter_ascii (conj digit_ascii (conj letter_eof digit_eof))) as Hyps.
  intros Hin Hs Hst. destruct (W lb17_open_kw l name t s Hin Hs Hst) as (l' & ld & k & H1 & H2 & H3 & H4 & H5 & H6 & H7 & H8 & H9).
  exists l'. split; [|split; [exact H2|split; [exact H9|unfold last_typ; rewrite H8; exact H6]]].
  exists 4%nat. split; [exact H1|]. exists [ld; k]. split; [rewrite H3; reflexivity|].
  constructor; [split; [exact H4|exact H5]|]. constructor; [|constructor].
  split; [exact H6|]. cbn [kw tk t_val]. rewrite H7. symmetry. exact (proj1 (lb17_open_kws_table name t Hin)).
Qed.

(* "}" and "/}" *)
Lemma lb17_go_rdelim l s : span l [] (125%N :: s) -> l_dd l = false ->
  exists l', lb17_go LInsideTag l LText l' [T_rdelim] /\ span l' [] s /\ l_dd l' = false.
Proof.
  pose proof (conj letter_ascii (conj digit_ascii (conj letter_eof digit_eof))) as Hyps.
  intros Hs Hdd. destruct (close_brace uni_letter uni_digit letter_eof digit_eof inp l s Hs Hdd) as (l' & p & H1 & H2 & H3 & H4 & H5).
  exists l'. split; [|split; [exact H2|exact H5]]. exists 2%nat. split; [exact H1|]. eexists [_]. split; [rewrite H3; reflexivity|].
  constructor; [|constructor]. split; reflexivity.
Qed.

Lemma lb17_go_rdelim_end l s : span l [] (47%N :: 125%N :: s) -> l_dd l = false ->
  exists l', lb17_go LInsideTag l LText l' [T_rdelim_end] /\ span l' [] s /\ l_dd l' = false.
Proof.
  pose proof (conj letter_ascii (conj digit_ascii (conj letter_eof digit_eof))) as Hyps.
  intros Hs Hdd. destruct (lb17_close_slash uni_letter uni_digit inp l s Hs Hdd) as (l' & p & H1 & H2 & H3 & H4 & H5).
  exists l'. split; [|split; [exact H2|exact H5]]. exists 2%nat. split; [exact H1|]. eexists [_]. split; [rewrite H3; reflexivity|].
  constructor; [|constructor]. split; reflexivity.
Qed.

(* "{/" kw "}" *)
Lemma lb17_go_close l cs t s : In (cs, t) lb17_close_kws -> span l [] ([123; 47]%N ++ cs ++ [125%N] ++ s) ->
  exists l', lb17_go LLeftDelim l LText l' (CmdSyntax.close_tag t) /\ span l' [] s /\ l_dd l' = false.
Proof.
  pose proof (conj letter_ascii (conj digit_ascii (conj letter_eof digit_eof))) as Hyps.
  intros Hin Hs. destruct (W lb17_close_cmd l cs t s Hin Hs) as (l' & ld & k & rd & H1 & H2 & H3 & H4 & H5 & H6 & H6v & H7 & H8 & H9 & H10).
  exists l'. split; [|split; [exact H2|exact H10]]. exists 5%nat. split; [exact H1|]. exists [ld; k; rd]. split; [rewrite H3; reflexivity|].
  unfold CmdSyntax.close_tag. constructor; [split; [exact H4|exact H5]|].
  constructor; [split; [exact H6|cbn [kw tk t_val]; rewrite H6v; symmetry; apply (lb17_close_kws_table cs t Hin)]|].
  constructor; [split; [exact H7|exact H8]|constructor].
Qed.

(* "{css" sp txt "}" *)
Lemma lb17_go_css l p txt s : span l [] ([123; 99; 115; 115]%N ++ 32%N :: txt ++ 125%N :: s) ->
  Forall (fun c => (c < 128)%N /\ c <> 125%N) txt ->
  exists l', lb17_go LLeftDelim l LText l' [T_ldelim; kw pit_Css p; tk pit_Text 0 txt; T_rdelim] /\ span l' [] s /\ l_dd l' = false.
Proof.
  pose proof (conj letter_ascii (conj digit_ascii (conj letter_eof digit_eof))) as Hyps.
  intros Hs Hall.
  destruct (W lb17_open_css l txt s Hs Hall) as (l' & ld & k & tx & rd & H1 & H2 & H3 & A1 & A2 & A3 & A4 & A5 & A6 & A7 & A8 & A9 & A10).
  exists l'. split; [|split; [exact H2|exact A10]]. exists 5%nat. split; [exact H1|]. exists [ld; k; tx; rd]. split; [rewrite H3; reflexivity|].
  constructor; [split; [exact A1|exact A2]|].
  constructor; [split; [exact A3|rewrite A4; reflexivity]|].
  constructor; [split; [exact A5|exact A6]|].
  constructor; [split; [exact A7|exact A8]|constructor].
Qed.

(* "=" inside a tag, before a byte that is not "=" *)
Lemma lb17_L_equals : L anyty (fun s => exists c r, s = c :: r /\ (c < 128)%N /\ c <> 61%N) [61%N] [(itemEquals, [61%N])] (eq itemEquals).
Proof.
  pose proof (conj letter_ascii (conj digit_ascii (conj letter_eof digit_eof))) as Hyps.
  apply (lexes_tok uni_letter uni_digit letter_ascii digit_ascii letter_eof digit_eof). intros l s Hs _ (c & r & -> & Hc & Hne).
  cbn [app] in Hs. destruct (W lb17_lex_equals l c r Hs Hc Hne) as (l' & A & B & C). exists 1%nat, l'. auto.
Qed.

(* a fragment inside a tag *)
Lemma lb17_go_lexes (P : N -> Prop) (F : bstr -> Prop) txt ts (Q : N -> Prop) l s :
  L P F txt (map tv ts) Q -> span l [] (txt ++ s) -> P (last_typ l) -> F s ->
  exists l', lb17_go LInsideTag l LInsideTag l' ts /\ span l' [] s /\ l_dd l' = l_dd l /\ Q (last_typ l').
Proof.
  pose proof (conj letter_ascii (conj digit_ascii (conj letter_eof digit_eof))) as Hyps.
  intros HL Hs HP HF. destruct (HL l s Hs HP HF) as (k & l' & H1 & H2 & H3 & H4).
  exists l'. split; [exists k; split; [exact H1|apply lb17_sent_sends; exact H3]|]. split; [exact H2|]. split; [|exact H4].
  destruct (sends_out _ _ _ H3) as (_ & _ & _ & Hd). exact Hd.
Qed.

(* lexText in front of a tag *)
Lemma lb17_go_text_tag l tl : span l [] (123%N :: tl) ->
  exists l', lb17_go LText l LLeftDelim l' [] /\ span l' [] (123%N :: tl) /\ l_dd l' = l_dd l.
Proof.
  pose proof (conj letter_ascii (conj digit_ascii (conj letter_eof digit_eof))) as Hyps.
  intros Hs. destruct (lb17_text_tag uni_letter uni_digit letter_eof digit_eof inp l tl Hs) as (l' & H1 & H2 & H3 & H4 & H5).
  exists l'. split; [exists 1%nat; split; [exact H1|apply lb17_sent_nil; exact H3]|auto].
Qed.

(* the end of a body: the next tag (tl <> []) or the end of the input *)
Definition lb17_fin (tl : bstr) (ts : list tok) (st : lstate) (l : lx) : Prop :=
  (tl <> [] /\ exists l', lb17_go st l LLeftDelim l' ts /\ span l' [] tl /\ l_dd l' = false) \/
  (tl = [] /\ exists k l' its e, steps k st l = Ok (LDone, l') /\ Forall2 lb17_sim its ts /\ t_typ e = itemEOF /\
                 l_out l' = e :: rev its ++ l_out l).

Lemma lb17_fin_prefix tl st l st1 l1 ts1 ts2 :
  lb17_go st l st1 l1 ts1 -> lb17_fin tl ts2 st1 l1 -> lb17_fin tl (ts1 ++ ts2) st l.
Proof.
  pose proof (conj letter_ascii (conj digit_ascii (conj letter_eof digit_eof))) as Hyps.
  intros Hgo [(Hne & l' & Hgo2 & Hs & Hdd)|(-> & k & l' & its & e & Hst & HF & He & Ho)].
  - left. split; [exact Hne|]. exists l'. split; [eapply lb17_go_trans; eassumption|auto].
  - right. split; [reflexivity|]. destruct Hgo as (k1 & Hst1 & (i1 & Ho1 & HF1)).
    exists (k1 + k)%nat, l', (i1 ++ its), e. split; [rewrite (steps_app _ _ _ _ k1 k _ _ _ _ Hst1); exact Hst|].
    split; [apply Forall2_app; assumption|]. split; [exact He|]. rewrite Ho, Ho1, rev_app_distr, <- app_assoc. reflexivity.
Qed.

(* a stretch of raw text (possibly empty) at the end of a body *)
Lemma lb17_fin_text l T tl (ts : list tok) : span l [] (T ++ tl) -> l_dd l = false -> LexBodyText.plain T ->
  lb17_one_piece T -> tag_or_end tl ->
  (if droppable T then ts = [] else exists p, ts = [tk pit_Text p T]) ->
  lb17_fin tl ts LText l.
Proof.
  pose proof (conj letter_ascii (conj digit_ascii (conj letter_eof digit_eof))) as Hyps.
  intros Hs Hdd Hpl Hns Htl Hts.
  destruct (lb17_text_run uni_letter uni_digit letter_eof digit_eof inp l T tl Hs Hpl Hns Htl) as (st' & l' & Hrun & (txt & Htx & Hdd' & Hres)).
  assert (HF : Forall2 lb17_sim txt ts).
  { unfold is_text_of in Htx. destruct (droppable T).
    - subst. constructor.
    - destruct Htx as (p & ->). destruct Hts as (q & ->). constructor; [|constructor]. split; reflexivity. }
  destruct Hres as [(-> & -> & e & He & Ho)|(Hne & -> & Ho & Hs' & _)].
  - right. split; [reflexivity|]. exists 1%nat, l', txt, e. auto.
  - left. split; [exact Hne|]. exists l'. split; [exists 1%nat; split; [exact Hrun|exists txt; auto]|]. split; [exact Hs'|congruence].
Qed.

End Go.
Arguments lb17_go_trans {uni_letter uni_digit inp st l st1 l1 st2 l2 ts1 ts2}.
