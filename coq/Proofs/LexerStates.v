(* One progress lemma per state function of the lexer (states without a loop of their own here;
   the scanning states are in LexerLoops.v):
       inv st l -> okp (step st l) (loop_post (rank st) l)
   i.e. the state function returns normally, the next state's invariant holds, and the potential
       phi st l = ticks + 40 * (remaining input) + rank st
   drops by at least one (it bounds the number of remaining steps plus the remaining work).
   This is the measure of DESIGN.md Appendix C: remaining input at state entry, then the rank of
   the state for the transitions that do not consume input.

   The proofs walk along the state function with [hstep]; each exit is one of the "landing" lemmas
   ([lands], [errorf_lands], [emit_to_lands]), which ask for the items claim and for one linear
   inequality: the work done so far, plus the rank of the next state, fits the budget. *)
From Soy Require Import Model.Bytes Model.Utf8 Model.Outcome Model.Token Generated.Tables Model.Lexer Proofs.LexerPrim.
From Coq Require Import ZifyBool Lia.
Open Scope Z_scope.

Definition rank (st : lstate) : Z :=
  match st with
  | LRightDelimEnd => 27
  | LRightDelim | LLineComment => 26
  | LText => 24
  | LLeftDelim => 21
  | LBeginTag => 18
  | LInsideTag => 16
  | LDone => 0
  | _ => 12
  end.

(* the symbol characters of lexInsideTag (regenerated lists) are ASCII *)
Lemma syms_ascii (syms : list Z) r :
  forallb (fun c => (0 <=? c) && (c <? 128)) syms = true -> existsb (Z.eqb r) syms = true -> 0 <= r < 128.
Proof.
  intros Hall H. apply existsb_exists in H. destruct H as (x & Hin & Hx). apply Z.eqb_eq in Hx. subst x.
  rewrite forallb_forall in Hall. specialize (Hall _ Hin). lia.
Qed.

(* the item types the tables can yield are ordinary: no minimum text length, not EOF or error *)
Lemma assoc_plain (tbl : list (bstr * N)) w t :
  forallb (fun p => plain_type (snd p)) tbl = true -> assoc_s w tbl = Some t -> plain_type t = true.
Proof.
  intros Hall. induction tbl as [|[k v] tbl IH]; cbn [assoc_s]; [discriminate|].
  cbn [forallb snd] in Hall. apply Bool.andb_true_iff in Hall. destruct Hall as [Hv Hall].
  destruct (bstr_eqb w k); [intros [= <-]; exact Hv|exact (IH Hall)].
Qed.
Lemma builtin_plain w t : assoc_s w builtin_idents = Some t -> plain_type t = true.
Proof. apply assoc_plain. vm_compute. reflexivity. Qed.
Lemma arith_plain w t : assoc_s w arith_items = Some t -> plain_type t = true.
Proof. apply assoc_plain. vm_compute. reflexivity. Qed.
Lemma arith_item_plain sym : plain_type (arith_item sym) = true.
Proof. unfold arith_item. destruct (assoc_s sym arith_items) eqn:E; [exact (arith_plain _ _ E)|reflexivity]. Qed.

Definition is_done (st : lstate) : bool := match st with LDone => true | _ => false end.

Section States.
Variable inp : bstr.
Notation ilen := (Z.of_nat (length inp)).
Variable base : Z.
Notation lim := (Z.to_N (base + ilen)).

Definition phi (st : lstate) (l : lx) : Z :=
  match st with
  | LDone => l_ticks l
  | _ => l_ticks l + 40 * (ilen - l_pos l) + rank st
  end.

Definition wf (l : lx) : Prop := 0 <= l_start l <= l_pos l /\ l_pos l <= ilen.

(* what holds whenever a state function is entered (in the nil state: the last item is EOF or an error) *)
Definition inv (st : lstate) (l : lx) : Prop :=
  wf l /\ items_ok lim (is_done st) (l_out l) /\ (st = LIdent -> l_pos l < ilen).

Definition step_post (st : lstate) (l : lx) (p : lstate * lx) : Prop :=
  let '(st', l') := p in
  inv st' l' /\ phi st' l' + 1 <= phi st l /\ l_ticks l <= l_ticks l'.

(* the same with an explicit budget B in place of the rank: the form everything is proved in, since it
   is also what a loop entered at l maintains *)
Definition loop_post (B : Z) (l : lx) (p : lstate * lx) : Prop :=
  let '(st', l') := p in
  inv st' l' /\ phi st' l' + 1 <= l_ticks l + 40 * (ilen - l_pos l) + B /\ l_ticks l <= l_ticks l'.

Lemma loop_post_mono B B2 l l2 p :
  l_ticks l <= l_ticks l2 /\ l_ticks l2 + 40 * (ilen - l_pos l2) + B2 <= l_ticks l + 40 * (ilen - l_pos l) + B ->
  loop_post B2 l2 p -> loop_post B l p.
Proof. destruct p as [st' l']. unfold loop_post. intros H (Hi & Hp & Ht). split; [exact Hi|]. lia. Qed.

Lemma phi_not_done st l : st <> LDone -> phi st l = l_ticks l + 40 * (ilen - l_pos l) + rank st.
Proof. destruct st; congruence || reflexivity. Qed.

Lemma loop_post_step st l p : st <> LDone -> loop_post (rank st) l p -> step_post st l p.
Proof. destruct p as [st' l']. unfold loop_post, step_post. intros Hst H. rewrite (phi_not_done st l Hst). exact H. Qed.

Lemma step_post_mono st l l2 p :
  st <> LDone -> l_ticks l <= l_ticks l2 -> l_ticks l2 + 40 * (ilen - l_pos l2) <= l_ticks l + 40 * (ilen - l_pos l) ->
  step_post st l2 p -> step_post st l p.
Proof.
  destruct p as [st' l']. unfold step_post. intros Hst H1 H2 (Hi & Hp & Ht).
  rewrite (phi_not_done st l2 Hst) in Hp. rewrite (phi_not_done st l Hst). split; [exact Hi|]. lia.
Qed.

(* l, reached inside a state function entered at l0 with budget B, is well-formed and k units are left *)
Definition affords (B k : Z) (l0 l : lx) : Prop :=
  wf l /\ l_ticks l + 40 * (ilen - l_pos l) + k <= l_ticks l0 + 40 * (ilen - l_pos l0) + B /\ l_ticks l0 <= l_ticks l.

(* the exits of such a state function *)
Lemma lands B l0 st' l' : items_ok lim (is_done st') (l_out l') ->
  wf l' /\ match st' with LIdent => l_pos l' < ilen | _ => True end /\
  phi st' l' + 1 <= l_ticks l0 + 40 * (ilen - l_pos l0) + B /\ l_ticks l0 <= l_ticks l' ->
  loop_post B l0 (st', l').
Proof. intros Hit (H1 & H2 & H3). split; [|exact H3]. split; [exact H1|]. split; [exact Hit|]. intros ->. exact H2. Qed.

(* `l.emit(t); return st` *)
Lemma emit_to_lands_min B t st l0 l : is_final t = false -> match st with LDone | LIdent => False | _ => True end ->
  items_ok lim false (l_out l) ->
  affords B (rank st + 1) l0 l /\ Z.of_nat (val_min t) <= l_pos l - l_start l ->
  okp (emit_to inp ilen base t st l) (loop_post B l0).
Proof.
  unfold affords, wf. intros Ht Hst Hit H. unfold emit_to.
  eapply okp_bind; [apply emit_sent; [lia|exact Hit]|]. intros l' (it & -> & _ & _ & Hi). rewrite Ht in Hi.
  apply lands; unfold wf; lcbn; destruct st; try contradiction; try exact Hi; cbn [phi rank] in *; lcbn; lia.
Qed.

Lemma emit_to_lands B t st l0 l : plain_type t = true -> match st with LDone | LIdent => False | _ => True end ->
  items_ok lim false (l_out l) -> affords B (rank st + 1) l0 l ->
  okp (emit_to inp ilen base t st l) (loop_post B l0).
Proof.
  intros Ht. apply plain_type_facts in Ht. destruct Ht as [Hv Hf]. intros Hst Hit H.
  apply emit_to_lands_min; [exact Hf|exact Hst|exact Hit|rewrite Hv; unfold affords, wf in *; lia].
Qed.

Hypothesis base_nonneg : 0 <= base.

Lemma errorf_lands B c l0 l : items_ok lim false (l_out l) ->
  wf l /\ l_ticks l + 1 <= l_ticks l0 + 40 * (ilen - l_pos l0) + B /\ l_ticks l0 <= l_ticks l ->
  okp (errorf base c l) (loop_post B l0).
Proof.
  unfold wf. intros Hit H. unfold errorf. destruct (base + l_pos l <? 0) eqn:E; [lia|].
  apply lands; [|unfold wf; cbn [phi]; lcbn; lia].
  split; [|split; [reflexivity|exact Hit]]. split; cbn [l_out t_pos t_typ t_val]; [apply to_N_mono|change (val_min itemError) with 0%nat]; lia.
Qed.

(* `if l.doubleDelim && l.next() != '}' { return l.errorf(...) }`; inl is the error return *)
Lemma double_close_spec B l0 l : items_ok lim false (l_out l) ->
  wf l /\ l_ticks l + 2 <= l_ticks l0 + 40 * (ilen - l_pos l0) + B /\ l_ticks l0 <= l_ticks l ->
  okp (double_close inp ilen base l)
      (fun c => match c with
                | inl e => loop_post B l0 e
                | inr l' => exists p w t, l' = scanned l p w t /\ l_pos l <= p <= ilen /\ l_ticks l <= t <= l_ticks l + 1
                end).
Proof.
  unfold wf. intros Hit H. unfold double_close. apply okp_if; intros _.
  - eapply okp_bind; [apply next_read; lia|]. intros [r l1] (w & -> & Hr). unfold read in Hr.
    apply okp_if; intros _.
    + eapply okp_bind; [apply (errorf_lands B _ l0); [exact Hit|unfold wf; lcbn; lia]|]. intros e He. exact He.
    + exists (l_pos l + w), w, (l_ticks l + 1). split; [reflexivity|lia].
  - exists (l_pos l), (l_width l), (l_ticks l). split; [apply scanned_id|lia].
Qed.

End States.

(* Closes a side condition: linear arithmetic over the fields of explicit states.  Boolean facts that are
   not comparisons of integers say nothing to lia: they are cleared first. *)
Ltac clear_bools :=
  repeat match goal with
  | H : @eq bool ?x _ |- _ =>
      lazymatch x with
      | Z.eqb _ _ => fail | Z.leb _ _ => fail | Z.ltb _ _ => fail
      | negb _ => fail | andb _ _ => fail | orb _ _ => fail
      | _ => tryif is_var x then fail else clear H
      end
  end.
Ltac arith := clear_bools; unfold affords, wf, eof in *; cbn [phi rank is_done]; lcbn; lia.

(* One step along a state function: the specification of the call at the head, its precondition by
   [arith] (the items claim by assumption), the result introduced as an explicit state together
   with the facts about the new integers.  An `if` is left to the proof: that is where it branches. *)
Ltac hintro H := lcbn in H; cbn beta iota.
Ltac hstep :=
  let H := fresh "H" in
  lazymatch goal with
  | |- okp (bind (next _ _ _) _) _ =>
      eapply okp_bind; [apply next_read; arith | intros [? ?] (? & -> & H); unfold read in H; hintro H]
  | |- okp (bind (peek _ _ _) _) _ =>
      eapply okp_bind; [apply peek_read; arith | intros [? ?] (? & -> & H); unfold read in H; hintro H]
  | |- okp (bind (accept _ _ _ _) _) _ =>
      eapply okp_bind; [apply accept_spec; arith | intros [? ?] (? & -> & H); hintro H]
  | |- okp (bind (accept_run _ _ _ _) _) _ =>
      eapply okp_bind; [apply accept_run_spec; arith | intros [? ?] (? & ? & ? & -> & -> & H); hintro H]
  | |- okp (bind (slice _ _ _ _) _) _ =>
      eapply okp_bind; [apply slice_len; arith | intros ? H; hintro H]
  | |- okp (bind (byte_at _ _ _) _) _ =>
      eapply okp_bind; [apply byte_at_spec; arith | intros ? _; cbn beta iota]
  | |- okp (bind (emit _ _ _ _ _) _) _ =>
      eapply okp_bind; [apply emit_plain; [reflexivity | arith | assumption] | intros ? (? & -> & H); hintro H]
  | |- okp (bind (maybe_emit_text _ _ _ _ _) _) _ =>
      eapply okp_bind; [apply maybe_emit_text_spec; [arith | assumption] | intros ? (H & ?); hintro H]
  | |- okp (bind (skip_space _ _ _) _) _ =>
      eapply okp_bind; [apply skip_space_spec; arith | intros ? (? & ? & ? & -> & H); hintro H]
  | |- okp (bind (double_close _ _ _ _) _) (loop_post _ _ ?bud ?ent) =>
      eapply okp_bind; [apply double_close_spec with (B := bud) (l0 := ent); [assumption | assumption | arith]
                       | intros [?|?]; [exact id | intros (? & ? & ? & -> & H); hintro H]]
  | |- okp (bind (Ok _) _) _ => cbn [bind]; cbn beta iota
  end.

(* The end of a state function (`return st`, `return l.errorf(..)`, `l.emit(t); return st`): the exit lemma lands /
   errorf_lands / emit_to_lands, its items claim (for errorf also base >= 0, for emit the plainness of the item type) by
   assumption, its inequalities by [arith]. *)
Ltac land :=
  lazymatch goal with
  | |- okp (Ok _) _ => cbn [okp]; apply lands; [assumption | arith]
  | |- okp (errorf _ _ _) _ => apply errorf_lands; [assumption | assumption | arith]
  | |- okp (emit_to _ _ _ _ _ _) _ => apply emit_to_lands; [first [reflexivity | assumption | apply arith_item_plain] | exact I | assumption | arith]
  end.

(* a test whose positive branch is an exit *)
Ltac exit_if := apply okp_if; [intros ?; land | intros _].

Section Simple.
Variable inp : bstr.
Notation ilen := (Z.of_nat (length inp)).
Variable base : Z.
Hypothesis base_nonneg : 0 <= base.
Notation inv := (inv inp base).
Notation loop_post := (loop_post inp base).

Lemma lex_left_delim_ok l : inv LLeftDelim l -> okp (lex_left_delim inp ilen base l) (loop_post 21 l).
Proof.
  intros ((Hs & Hp) & Hit & _). unfold lex_left_delim. hstep. hstep.
  destruct (_ =? 123); hstep; land.
Qed.

Lemma lex_right_delim_ok l : inv LRightDelim l -> okp (lex_right_delim inp ilen base l) (loop_post 26 l).
Proof. intros ((Hs & Hp) & Hit & _). unfold lex_right_delim. hstep. hstep. land. Qed.

Lemma lex_right_delim_end_ok l : inv LRightDelimEnd l -> okp (lex_right_delim_end inp ilen base l) (loop_post 27 l).
Proof. intros ((Hs & Hp) & Hit & _). unfold lex_right_delim_end. hstep. hstep. hstep. land. Qed.

Lemma lex_begin_tag_ok l : inv LBeginTag l -> okp (lex_begin_tag inp ilen l) (loop_post 18 l).
Proof. intros ((Hs & Hp) & Hit & _). unfold lex_begin_tag. hstep. apply okp_if; intros E; land. Qed.

(* `cond && f(l.peek())`: at most one call of peek, whose rune decides the outcome *)
Lemma peek_if_spec (c : bool) (f : Z -> bool) l : 0 <= l_pos l ->
  okp (if c then bind (peek inp ilen l) (fun '(p, l') => Ok (f p, l')) else Ok (false, l))
      (fun '(b, l') => exists w t p, l' = scanned l (l_pos l) w t /\
         ((c = false /\ b = false /\ w = l_width l /\ t = l_ticks l) \/
          (c = true /\ b = f p /\ t = l_ticks l + 1 /\ read inp l p w))).
Proof.
  intros Hp. destruct c.
  - eapply okp_bind; [apply peek_read, Hp|]. intros [p l1] (w & -> & Hr).
    exists w, (l_ticks l + 1), p. split; [reflexivity|right; auto].
  - exists (l_width l), (l_ticks l), 0. split; [apply scanned_id|left; auto].
Qed.

(* lexNegative, called by lexInsideTag after the `-`; before a digit it steps back over the sign *)
Lemma lex_negative_lands B l0 l : items_ok (Z.to_N (base + ilen)) false (l_out l) ->
  affords inp B 55 l0 l /\ l_start l < l_pos l ->
  okp (lex_negative inp ilen base l) (loop_post B l0).
Proof.
  intros Hit H. unfold lex_negative. apply okp_if; intros _.
  - hstep.
    eapply okp_bind; [apply (peek_if_spec _ (fun p2 => p2 <=? 57)); arith|].
    intros [num l2] (w2 & t2 & p2 & -> & H2). unfold read in H2. hintro H2.
    exit_if. hstep. land.
  - hstep. land.
Qed.

Lemma lex_inside_tag_ok l : inv LInsideTag l -> okp (lex_inside_tag inp ilen base l) (loop_post 16 l).
Proof.
  intros ((Hs & Hp) & Hit & _). unfold lex_inside_tag.
  eapply okp_bind; [apply next_read; arith|]. intros [r l1] (w & -> & H). unfold read in H. hintro H.
  apply okp_if; [intros E; apply isSpaceEOL_nonneg in E; land|intros _].
  eapply okp_bind; [apply (peek_if_spec _ (fun p => p =? 125)); arith|].
  intros [c1 l2] (w2 & t2 & p2 & -> & H2). unfold read in H2. hintro H2.
  (* all the rest needs to know of that peek *)
  assert (H2' : 0 <= w2 /\ l_ticks l + 1 <= t2 <= l_ticks l + 2 /\
                ((r =? 47) = false -> c1 = false /\ w2 = w /\ t2 = l_ticks l + 1)) by lia.
  clear H2.
  exit_if.
  exit_if.
  exit_if.
  exit_if.
  apply okp_if; [intros E; hstep; repeat exit_if; land|intros _].
  apply okp_if; [intros E; apply lex_negative_lands; [assumption|arith]|intros _].
  exit_if.
  exit_if.
  apply okp_if; [intros E; apply (syms_ascii inside_tag_single_syms) in E; [land|reflexivity]|intros _].
  (* the comparison operators; `=` only before another `=`: that costs one more peek *)
  eapply okp_bind with (P := fun '(c2, l3) => exists w3 t3, l3 = scanned l (l_pos l + w) w3 t3 /\
                               t2 <= t3 <= t2 + 1 /\ (c2 = true -> 0 <= r) /\ ((r =? 61) = false -> w3 = w2 /\ t3 = t2)).
  { apply okp_if; [intros E; apply (syms_ascii inside_tag_cmp_syms) in E; [|reflexivity]; exists w2, t2; split; [reflexivity|lia]|intros _].
    apply okp_if; intros E; [hstep|]; eexists _, _; (split; [reflexivity|arith]). }
  intros [c2 l3] (w3 & t3 & -> & H3).
  apply okp_if; intros E2.
  - hstep; hstep; (destruct (assoc_s _ arith_items) eqn:Ea; [pose proof (arith_plain _ _ Ea)|]; land).
  - apply okp_if; [intros E; land|intros _].
    exit_if.
    exit_if.
    exit_if.
    apply okp_if; [intros E; apply isLetterOrUnderscore_nonneg in E; land|intros _].
    exit_if.
    exit_if.
    land.
Qed.

End Simple.

(* close a case of lexIdent's prefix: the type chosen has minimum length k *)
Ltac ident_pre k := eexists _, _, _, k; (split; [reflexivity | split; [split; reflexivity | arith]]).

Section Alnum.
Variable uni_letter uni_digit : Z -> bool.
Hypothesis letter_eof : uni_letter (-1) = false.
Hypothesis digit_eof : uni_digit (-1) = false.
Variable inp : bstr.
Notation ilen := (Z.of_nat (length inp)).
Variable base : Z.
Hypothesis base_nonneg : 0 <= base.
Notation inv := (inv inp base).
Notation loop_post := (loop_post inp base).
Notation lim := (Z.to_N (base + ilen)).

Lemma lex_ident_ok l : inv LIdent l -> okp (lex_ident uni_letter uni_digit inp ilen base l) (loop_post 12 l).
Proof.
  intros ((Hs & Hp) & Hit & Hi). specialize (Hi eq_refl). unfold lex_ident.
  eapply okp_bind; [apply next_read; arith|]. intros [r l1] (w & -> & H). unfold read in H. hintro H.
  (* the prefix: the text so far is long enough (k bytes) for the type chosen *)
  eapply okp_bind with (P := fun pre => match pre with
    | inl e => loop_post 12 l e
    | inr (ity, l2) => exists p w2 t k, l2 = scanned l p w2 t /\ (val_min ity = k /\ is_final ity = false) /\
                         l_pos l < p /\ l_pos l + Z.of_nat k <= p <= ilen /\ l_ticks l < t <= l_ticks l + 3
    end).
  { apply okp_if; [intros E|intros _].
    { hstep. destruct (gen_isDigit _); ident_pre 1%nat. }
    apply okp_if; [intros E; ident_pre 1%nat|intros _].
    apply okp_if; [intros E; ident_pre 0%nat|intros _].
    apply okp_if; [intros E; ident_pre 0%nat|intros _].
    apply okp_if; [intros E|intros _; ident_pre 0%nat].
    hstep. apply okp_if; intros E2.
    - eapply okp_bind; [apply (errorf_lands inp base base_nonneg 12 _ l); [assumption|arith]|]. intros e He. exact He.
    - hstep. destruct (gen_isDigit _); ident_pre 2%nat. }
  intros [e|[ity l2]]; [exact id|]. intros (p & w2 & t & k & -> & (Hk & Hf) & H2).
  eapply okp_bind; [apply (alnum_loop_spec _ _ letter_eof digit_eof); [arith|apply loop_fuel_ok; arith]|].
  intros l3 (p3 & w3 & t3 & -> & H3). lcbn in H3. cbv zeta. hstep.
  destruct (assoc_s _ builtin_idents) as [t'|] eqn:Ea.
  - eapply okp_bind; [apply emit_plain; [exact (builtin_plain _ _ Ea)|arith|assumption]|]. intros l5 (it & -> & Hi5).
    repeat (apply okp_if; intros _); land.
  - apply okp_if; intros _; [land|]. apply emit_to_lands_min; [exact Hf|exact I|assumption|rewrite Hk; arith].
Qed.

(* a piece of scanNumber started at l: l moved forward by some bytes with at most as many units of work
   and k more; the item type is an ordinary one; inr (the number goes on) only after at least d bytes *)
Definition num_post (k d : Z) (l : lx) (r : N * lx + N * lx) : Prop :=
  let '(ty, l') := match r with inl x | inr x => x end in
  exists p w t, l' = scanned l p w t /\ plain_type ty = true /\
    l_pos l <= p <= ilen /\ l_ticks l <= t <= l_ticks l + (p - l_pos l) + k /\
    match r with inl _ => True | inr _ => l_pos l + d <= p end.

Ltac num_land := eexists _, _, _; (split; [reflexivity|split; [first [reflexivity|assumption]|arith]]).

Lemma scan_hex_spec l : 0 <= l_pos l /\ l_pos l + 2 <= ilen -> okp (scan_hex inp ilen l) (num_post 2 1 l).
Proof.
  intros H. unfold scan_hex. change num_hex_prefix_len with 2. cbv zeta. hstep.
  apply okp_if; intros E; [num_land|]. hstep. apply okp_if; intros E2; num_land.
Qed.

Lemma scan_mantissa_spec (hs : bool) l :
  0 <= l_start l /\ l_start l + Z.b2z hs <= l_pos l <= ilen ->
  okp (scan_mantissa inp ilen hs l) (num_post 3 1 l).
Proof.
  intros H. unfold scan_mantissa. hstep.
  apply okp_if; intros E; [num_land|]. hstep. apply okp_if; intros Edot.
  - hstep. apply okp_if; intros _; num_land.
  - destruct hs; cbn [negb andb orb Z.b2z] in *; hstep; hstep; apply okp_if; intros _; num_land.
Qed.

Lemma scan_exponent_spec ty l : plain_type ty = true -> 0 <= l_pos l <= ilen ->
  okp (scan_exponent inp ilen ty l) (num_post 4 0 l).
Proof.
  intros Hty H. unfold scan_exponent. hstep. apply okp_if; intros Ee; [|num_land]. hstep. hstep. apply okp_if; intros _; num_land.
Qed.

Definition sn_post (l : lx) '((ty, ok, l') : N * bool * lx) : Prop :=
  exists p w t, l' = scanned l p w t /\ plain_type ty = true /\
    l_pos l <= p <= ilen /\ l_ticks l <= t <= l_ticks l + (p - l_pos l) + 10 /\ (ok = true -> l_pos l < p).

Lemma scan_number_spec l : wf inp l -> okp (scan_number uni_letter uni_digit inp ilen l) (sn_post l).
Proof.
  intros (Hs & Hp). unfold scan_number.
  eapply okp_bind; [apply accept_spec; arith|]. intros [hs l1] (w1 & -> & H1).
  eapply okp_bind with (P := fun hex : bool => hex = true -> l_pos l + Z.b2z hs + 2 <= ilen).
  { apply okp_if; intros E; [lcbn in E; hstep; cbn [okp]; arith|discriminate]. }
  intros hex Hhex.
  eapply okp_bind with (P := num_post 8 1 l).
  { apply okp_if; intros E; [apply okp_if; intros E2|].
    - num_land.
    - specialize (Hhex E). eapply okp_weaken; [apply scan_hex_spec; arith|].
      intros [[ty l2]|[ty l2]] (p & w & t & -> & Hty & H2); lcbn in H2; num_land.
    - eapply okp_bind; [apply (scan_mantissa_spec hs); arith|].
      intros [[ty l2]|[ty l2]] (p & w & t & -> & Hty & H2); lcbn in H2; [num_land|].
      eapply okp_weaken; [apply scan_exponent_spec; [exact Hty|arith]|].
      intros [[ty' l3]|[ty' l3]] (p3 & w3 & t3 & -> & Hty' & H3); lcbn in H3; num_land. }
  clear Hhex H1. intros [[ty l2]|[ty l2]] (p & w & t & -> & Hty & H2); [num_land|].
  hstep. apply okp_if; intros _; [hstep|]; num_land.
Qed.

Lemma lex_number_ok l : inv LNumber l -> okp (lex_number uni_letter uni_digit inp ilen base l) (loop_post 12 l).
Proof.
  intros (Hw & Hit & _). unfold lex_number.
  eapply okp_bind; [apply scan_number_spec, Hw|]. intros [[ty ok] l1] (p & w & t & -> & Hty & H). destruct Hw as [Hs Hp].
  apply okp_if; intros E; [hstep|]; land.
Qed.

End Alnum.
