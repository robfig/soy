(* C04, expressions: on the common subset the JavaScript the generator emits
   evaluates to the image of the value the Soy expression has. *)
From Soy Require Import Model.Bytes Model.Num Model.Values Model.Outcome Model.Ast Model.JsGen Model.MiniJS.
From Soy Require Export Proofs.BytesBase.
Open Scope N_scope.

(* ---- small facts ---- *)
Lemma assoc_s_map_to_js k (m : list (bstr * value)) :
  assoc_s k (map (fun kv => (fst kv, to_js (snd kv))) m) = option_map to_js (assoc_s k m).
Proof.
  induction m as [|[k' v] m IH]; [reflexivity|]. cbn [map fst snd assoc_s option_map].
  destruct (bstr_eqb k k'); [reflexivity|exact IH].
Qed.

Lemma js_member_obj m k : js_member (to_js (VMap 0 m)) k = Ok (to_js (map_key m k)).
Proof.
  cbn [to_js js_member]. rewrite assoc_s_map_to_js. unfold map_key. destruct (assoc_s k m); reflexivity.
Qed.

Lemma js_index_arr l i : js_index (JArr (map to_js l)) i = Ok (to_js (list_index l i)).
Proof.
  cbn [js_index]. unfold list_index. rewrite map_length.
  destruct ((i <? 0)%Z || (Z.of_nat (length l) <=? i)%Z); [reflexivity|].
  rewrite nth_error_map. destruct (nth_error l (Z.to_nat i)); reflexivity.
Qed.

Lemma core_list_index l i : forallb core_value l = true -> core_value (list_index l i) = true.
Proof.
  intro H. unfold list_index. destruct ((i <? 0)%Z || (Z.of_nat (length l) <=? i)%Z); [reflexivity|].
  destruct (nth_error l (Z.to_nat i)) as [x|] eqn:E; [|reflexivity].
  apply nth_error_In in E. exact (proj1 (forallb_forall _ _) H x E).
Qed.
Lemma core_map_key m k : forallb (fun kv : bstr * value => core_value (snd kv)) m = true -> core_value (map_key m k) = true.
Proof.
  intro H. unfold map_key. destruct (assoc_s k m) as [x|] eqn:E; [|reflexivity].
  induction m as [|[k' v] m IH]; [discriminate|]. cbn [assoc_s] in E. cbn [forallb snd] in H.
  apply andb_prop in H as [H1 H2]. destruct (bstr_eqb k k'). inversion E; subst; exact H1. apply IH; assumption.
Qed.

Lemma truthy_js v : core_value v = true -> js_truthy (to_js v) = truthy v.
Proof. destruct v; try reflexivity; try discriminate. Qed.
Lemma nullish_js v : core_value v = true -> js_nullish (to_js v) = c_nullish v.
Proof. destruct v; try reflexivity; try discriminate. Qed.

Lemma assoc_s_aset {A} k (v : A) (l : list (bstr * A)) : assoc_s k (aset l k v) = Some v.
Proof.
  induction l as [|[k' x] l IH]; cbn [aset assoc_s]. rewrite bstr_eqb_refl. reflexivity.
  destruct (bstr_eqb k k') eqn:Ek; cbn [assoc_s]; rewrite ?Ek, ?bstr_eqb_refl; [reflexivity|exact IH].
Qed.

Lemma cint_inv z v : cint z = Some v -> v = VInt z /\ small z = true.
Proof. unfold cint. destruct (small z) eqn:E; intro H; inversion H; auto. Qed.

(* the binary operators that evaluate both operands, on the values of the subset: the cases in which ceval has a value *)
Inductive cbin : binop -> value -> value -> value -> Prop :=
| cb_add p q : small (p + q) = true -> cbin OAdd (VInt p) (VInt q) (VInt (p + q))
| cb_cat s t : cbin OAdd (VStr s) (VStr t) (VStr (s ++ t))
| cb_cat_si s q : cbin OAdd (VStr s) (VInt q) (VStr (s ++ dec_of_Z q))
| cb_cat_is p t : cbin OAdd (VInt p) (VStr t) (VStr (dec_of_Z p ++ t))
| cb_sub p q : small (p - q) = true -> cbin OSub (VInt p) (VInt q) (VInt (p - q))
| cb_mul p q : small (p * q) = true -> cbin OMul (VInt p) (VInt q) (VInt (p * q))
| cb_mod p q : (q =? 0)%Z = false -> small (Z.rem p q) = true -> cbin OMod (VInt p) (VInt q) (VInt (Z.rem p q))
| cb_lt p q : cbin OLt (VInt p) (VInt q) (VBool (p <? q)%Z)
| cb_le p q : cbin OLte (VInt p) (VInt q) (VBool (p <=? q)%Z)
| cb_gt p q : cbin OGt (VInt p) (VInt q) (VBool (q <? p)%Z)
| cb_ge p q : cbin OGte (VInt p) (VInt q) (VBool (q <=? p)%Z)
| cb_eq_i p q : cbin OEq (VInt p) (VInt q) (VBool (p =? q)%Z)
| cb_eq_s s t : cbin OEq (VStr s) (VStr t) (VBool (bstr_eqb s t))
| cb_eq_b p q : cbin OEq (VBool p) (VBool q) (VBool (Bool.eqb p q))
| cb_eq_n : cbin OEq VNull VNull (VBool true)
| cb_ne_i p q : cbin ONotEq (VInt p) (VInt q) (VBool (negb (p =? q)%Z))
| cb_ne_s s t : cbin ONotEq (VStr s) (VStr t) (VBool (negb (bstr_eqb s t)))
| cb_ne_b p q : cbin ONotEq (VBool p) (VBool q) (VBool (negb (Bool.eqb p q)))
| cb_ne_n : cbin ONotEq VNull VNull (VBool false).
Lemma ceval_bin ij env op a c v : ceval ij env (CBin op a c) = Some v ->
  match op with
  | OAnd | OOr | OElvis => True
  | _ => exists x y, ceval ij env a = Some x /\ ceval ij env c = Some y /\ cbin op x y v
  end.
Proof.
  intro E. destruct op; try exact I; cbn [ceval] in E;
    (destruct (ceval ij env a) as [x|]; [|discriminate]); (destruct (ceval ij env c) as [y|]; [|discriminate]);
    exists x, y; (split; [reflexivity|]); (split; [reflexivity|]);
    destruct x; try discriminate; destruct y; try discriminate;
    try (destruct (z0 =? 0)%Z eqn:Hz; [discriminate|]);
    first [apply cint_inv in E as [-> Hs]; constructor; assumption | injection E as <-; constructor].
Qed.

#[local] Arguments assoc_s {A} k l : simpl never.

(* ---- the relation between the Soy scope and the JavaScript environment ---- *)
Section JsCorrect.
Variable sc : list (list (bstr * bstr)).      (* the generator's scope stack *)
Variable ij : option value.
Variable env : bstr -> option value.
Variable je : jenv.

Definition env_val (key : bstr) : value := match env key with Some v => v | None => VUndef end.

(* every Soy variable is found where the generator will look for it: in the
   generated variable the scope maps it to, or in opt_data; the injected data
   is opt_ijData; everything is core data *)
Record env_rel : Prop := {
  er_var : forall key, is_ident key = true -> bstr_eqb key n_ij = false ->
             match jsc_lookup sc key with
             | [] => js_member (je_data je) key = Ok (to_js (env_val key))
             | g => assoc_s g (je_vars je) = Some (to_js (env_val key))
             end;
  er_ij : forall v, ij = Some v -> assoc_s t_opt_ij (je_vars je) = Some (to_js v);
  er_core : forall key, core_value (env_val key) = true;
  er_core_ij : forall v, ij = Some v -> core_value v = true;
  (* inside a loop over $x (the renderer's hidden $x.index is bound) the generator's scope has a loop frame for x,
     whose index variable holds the position and whose limit variable holds the count *)
  er_loop : forall x i, env (x ++ jk_index) = Some (VInt i) ->
              fst (jsc_loop sc x) <> [] /\ assoc_s (fst (jsc_loop sc x)) (je_vars je) = Some (JNum i)
              /\ forall l, env (x ++ c_lastindex) = Some (VInt l) -> assoc_s (snd (jsc_loop sc x)) (je_vars je) = Some (JNum (l + 1));
}.
Hypothesis ER : env_rel.

Lemma cgen_ref_correct accs : forall r rj v, js_eval je rj = Ok (to_js r) -> core_value r = true ->
  cacc_eval accs r = Some v -> js_eval je (cgen_ref accs rj) = Ok (to_js v) /\ core_value v = true.
Proof.
  induction accs as [|a rest IH]; intros r rj v Hj Hc E; cbn [cacc_eval cgen_ref] in *.
  - inversion E; subst. auto.
  - assert (Hstep : forall r', js_eval je (cacc_apply rj a) = Ok (to_js r') -> core_value r' = true ->
              cacc_eval rest r' = Some v -> c_nullish r = false ->
              js_eval je (if cacc_ns a then JENullSafe rj (cgen_ref rest (cacc_apply rj a)) else cgen_ref rest (cacc_apply rj a)) = Ok (to_js v)
              /\ core_value v = true).
    { intros r' Hj' Hc' E' Hn. destruct (IH r' _ v Hj' Hc' E') as [H1 H2]. split; [|exact H2].
      destruct (cacc_ns a); [|exact H1]. cbn [js_eval]. rewrite Hj. cbn [bind]. rewrite nullish_js, Hn by exact Hc. exact H1. }
    destruct r; try discriminate.
    + (* undefined *) destruct (cacc_ns a); [|discriminate]. inversion E; subst. cbn [js_eval]. rewrite Hj. cbn. auto.
    + (* null *) destruct (cacc_ns a); [|discriminate]. inversion E; subst. cbn [js_eval]. rewrite Hj. cbn. auto.
    + (* list *) destruct a as [ns k|ns i]; [discriminate|]. cbn [core_value] in Hc.
      apply (Hstep (list_index l i)); auto.
      cbn [cacc_apply js_eval]. rewrite Hj. cbn [bind to_js]. apply js_index_arr. apply core_list_index; exact Hc.
    + (* map *) destruct a as [ns k|ns i]; [|discriminate]. cbn [core_value] in Hc.
      apply (Hstep (map_key m k)); auto.
      cbn [cacc_apply js_eval]. rewrite Hj. cbn [bind]. apply (js_member_obj m k). apply core_map_key; exact Hc.
Qed.

(* the JavaScript half of gen_expr_correct_partial: on the common subset (ceval gives Some) the
   generated JavaScript expression evaluates to the image of the Soy value *)
Theorem cgen_correct e : forall v, ceval ij env e = Some v ->
  js_eval je (cgen sc e) = Ok (to_js v) /\ core_value v = true.
Proof.
  induction e as [| x | z | s | key accs | a IHa | a IHa | op a IHa c IHc | c IHc a IHa d IHd | k x]; intros v E; cbn [ceval cgen] in *.
  - inversion E; subst. auto.
  - inversion E; subst. auto.
  - apply cint_inv in E. destruct E as [-> Hs]. cbn. auto.
  - inversion E; subst. auto.
  - (* variable *)
    destruct (is_ident key) eqn:Eid; [|discriminate].
    destruct (bstr_eqb key n_ij) eqn:Ek.
    + destruct ij as [iv|] eqn:Eij; [|discriminate].
      apply (cgen_ref_correct accs iv); auto. cbn [js_eval]. rewrite (er_ij ER iv Eij). reflexivity. apply (er_core_ij ER); exact Eij.
    + apply (cgen_ref_correct accs (env_val key)); auto; [|apply (er_core ER)].
      pose proof (er_var ER key Eid Ek) as H. destruct (jsc_lookup sc key) as [|g0 g] eqn:El; cbn [js_eval].
      * exact H.
      * rewrite H. reflexivity.
  - (* neg *)
    destruct (ceval ij env a) as [[| | |z| | | |]|] eqn:Ea; try discriminate.
    destruct (IHa _ eq_refl) as [Ha _]. apply cint_inv in E. destruct E as [-> Hs].
    cbn [js_eval]. rewrite Ha. cbn [bind to_js]. unfold js_num. rewrite Hs. auto.
  - (* not *)
    destruct (ceval ij env a) as [x|] eqn:Ea; [|discriminate]. inversion E; subst.
    destruct (IHa _ eq_refl) as [Ha Hc]. cbn [js_eval]. rewrite Ha. cbn [bind]. rewrite truthy_js by exact Hc. auto.
  - (* binary *)
    pose proof (ceval_bin ij env op a c v E) as Hb.
    destruct op;
      try (destruct Hb as (x & y & Ea & Ec & Hb); destruct (IHa _ Ea) as [Ha _]; destruct (IHc _ Ec) as [Hc _];
           cbn [cgen cgen_binop js_eval]; rewrite Ha; cbn [bind]; rewrite Hc; cbn [bind];
           inversion Hb; subst; cbn [to_js js_binop];
           try match goal with Hz : (_ =? 0)%Z = false |- _ => rewrite Hz end;
           try match goal with Hs : small _ = true |- _ => unfold js_num; rewrite Hs end; auto; fail); clear Hb.
    + (* or *)
      destruct (ceval ij env a) as [[| |[|]| | | | |]|] eqn:Ea; try discriminate; destruct (IHa _ eq_refl) as [Ha _];
        cbn [cgen_binop js_eval]; rewrite Ha; cbn [bind to_js js_truthy].
      * inversion E; subst. auto.
      * destruct (ceval ij env c) as [[| |y| | | | |]|] eqn:Ec; try discriminate. inversion E; subst. destruct (IHc _ eq_refl) as [Hb _]. auto.
    + (* and *)
      destruct (ceval ij env a) as [[| |[|]| | | | |]|] eqn:Ea; try discriminate; destruct (IHa _ eq_refl) as [Ha _];
        cbn [cgen_binop js_eval]; rewrite Ha; cbn [bind to_js js_truthy].
      * destruct (ceval ij env c) as [[| |y| | | | |]|] eqn:Ec; try discriminate. inversion E; subst. destruct (IHc _ eq_refl) as [Hb _]. auto.
      * inversion E; subst. auto.
    + (* elvis *)
      destruct (ceval ij env a) as [x|] eqn:Ea; [|discriminate]. destruct (IHa _ eq_refl) as [Ha Hca].
      cbn [js_eval]. rewrite Ha. cbn [bind]. rewrite nullish_js by exact Hca.
      destruct (c_nullish x). apply IHc; exact E. inversion E; subst. auto.
  - (* ternary *)
    destruct (ceval ij env c) as [x|] eqn:Ec; [|discriminate]. destruct (IHc _ eq_refl) as [Hc Hcc].
    cbn [js_eval]. rewrite Hc. cbn [bind]. rewrite truthy_js by exact Hcc.
    destruct (truthy x); [apply IHa|apply IHd]; exact E.
  - (* loop function *)
    destruct (env (x ++ jk_index)) as [[| | |i| | | |]|] eqn:Ei; try discriminate.
    destruct (er_loop ER x i Ei) as (Hne & Hix & Hlim).
    pose proof (er_core ER (x ++ jk_index)) as Hci. unfold env_val in Hci. rewrite Ei in Hci.
    destruct (jsc_loop sc x) as [ix lim]. cbn [fst snd] in *. destruct k.
    + inversion E; subst. cbn [js_eval]. rewrite Hix. auto.
    + inversion E; subst. cbn [js_eval]. rewrite Hix. auto.
    + destruct (env (x ++ c_lastindex)) as [[| | |l| | | |]|] eqn:El; try discriminate. inversion E; subst.
      pose proof (er_core ER (x ++ c_lastindex)) as Hcl. unfold env_val in Hcl. rewrite El in Hcl.
      cbn [js_eval]. rewrite Hix, (Hlim l eq_refl). replace (l + 1 - 1)%Z with l by lia.
      change (core_value (VInt l)) with (small l) in Hcl. rewrite Hcl. auto.
Qed.
End JsCorrect.

Lemma er_core_some sc ij env je : env_rel sc ij env je -> forall k x, env k = Some x -> core_value x = true.
Proof. intros ER k x Hk. pose proof (er_core _ _ _ _ ER k) as H. unfold env_val in H. rewrite Hk in H. exact H. Qed.

(* ------------------------------------------------------------------ *)
(* ceval is the Soy meaning: Model/Interp.v's walker returns the same value *)
From Soy Require Import Model.Escape Model.Directives Model.Print Generated.Tables Model.Interp Proofs.ValueProofs.

Lemma wrap64_small z : small z = true -> wrap64 z = z.
Proof.
  unfold small, wrap64, two53, two63, two64. intro H. apply Z.leb_le in H.
  rewrite Z.mod_small by lia. lia.
Qed.

Lemma fl_cmp_small x y : small x = true -> small y = true ->
  match fl_of_int x, fl_of_int y with
  | Some f, Some g => fl_cmp f g = Some (Z.compare x y)
  | _, _ => False
  end.
Proof.
  unfold small. intros Hx Hy. apply Z.leb_le in Hx, Hy.
  pose proof (fl_of_int_small x Hx) as Sx. pose proof (fl_of_int_small y Hy) as Sy.
  destruct (fl_of_int x) as [[| |[|]|q k]|]; try contradiction;
    destruct (fl_of_int y) as [[| |[|]|m e]|]; try contradiction; cbn [fl_cmp].
  - subst. reflexivity.
  - destruct Sy as (He & -> & Hm). subst x. assert (0 < 2 ^ e)%Z by (apply pow2_pos; lia).
    destruct (Z.ltb_spec m 0); f_equal; symmetry; [apply Z.compare_gt_iff|apply Z.compare_lt_iff]; nia.
  - destruct Sx as (Hk & -> & Hq). subst y. assert (0 < 2 ^ k)%Z by (apply pow2_pos; lia).
    destruct (Z.ltb_spec q 0); f_equal; symmetry; [apply Z.compare_lt_iff|apply Z.compare_gt_iff]; nia.
  - destruct Sx as (Hk & -> & Hq). destruct Sy as (He & -> & Hm). f_equal.
    set (mn := Z.min k e).
    assert (Hmn : (0 <= mn /\ mn <= k /\ mn <= e)%Z) by (subst mn; lia).
    assert (Hp : (0 < 2 ^ mn)%Z) by (apply pow2_pos; lia).
    replace (2 ^ k)%Z with (2 ^ (k - mn) * 2 ^ mn)%Z by (rewrite <- Z.pow_add_r by lia; f_equal; lia).
    replace (2 ^ e)%Z with (2 ^ (e - mn) * 2 ^ mn)%Z by (rewrite <- Z.pow_add_r by lia; f_equal; lia).
    rewrite !Z.mul_assoc. apply Zmult_compare_compat_r. lia.
Qed.

Lemma compare_small op p q : small p = true -> small q = true ->
  compare_op op (VInt p) (VInt q)
  = Ok (VBool (match op with OLt => (p <? q)%Z | OLte => (p <=? q)%Z | OGt => (q <? p)%Z | OGte => (q <=? p)%Z | _ => false end)).
Proof.
  intros Hp Hq. unfold compare_op, to_float.
  pose proof (fl_cmp_small p q Hp Hq) as H1. pose proof (fl_cmp_small q p Hq Hp) as H2.
  destruct (fl_of_int p) as [f|]; [|contradiction]. destruct (fl_of_int q) as [g|]; [|contradiction].
  cbn [bind]. unfold fl_ltb, fl_leb. rewrite H1, H2. unfold Z.ltb, Z.leb. rewrite (Z.compare_antisym p q).
  destruct op; try reflexivity; destruct (p ?= q)%Z; reflexivity.
Qed.

Section Bridge.
Variable cf : cfg.

(* what an expression of the subset leaves untouched: the scope, the autoescape mode and the writer *)
Definition pres (st st' : mstate) : Prop :=
  ctx st' = ctx st /\ mode st' = mode st /\ out st' = out st /\ bufs st' = bufs st
  /\ calls_left st' = calls_left st /\ bytes_left st' = bytes_left st.
Lemma pres_refl st : pres st st. Proof. repeat split. Qed.
Lemma pres_trans a c d : pres a c -> pres c d -> pres a d.
Proof. unfold pres. intros (A1 & A2 & A3 & A4 & A5 & A6) (B1 & B2 & B3 & B4 & B5 & B6). repeat split; congruence. Qed.
Lemma pres_set_cur st p : pres st (set_cur st p). Proof. repeat split. Qed.
Lemma pres_bump st : pres st (bump_unbound st). Proof. repeat split. Qed.
Lemma pres_ctx a c : pres a c -> ctx c = ctx a. Proof. intro H; exact (proj1 H). Qed.

(* the action returns v and leaves the state as [pres] says *)
Definition mok (m : M value) (st : mstate) (v : value) : Prop := exists st', m st = (Ok v, st') /\ pres st st'.

Lemma mok_bind (m : M value) (f : value -> M value) st x v :
  mok m st x -> (forall st1, ctx st1 = ctx st -> mok (f x) st1 v) -> mok (mbind m f) st v.
Proof.
  intros (st1 & E1 & C1) Hf. destruct (Hf st1 (pres_ctx _ _ C1)) as (st2 & E2 & C2).
  exists st2. unfold mbind. rewrite E1. split; [exact E2|eapply pres_trans; eauto].
Qed.
Lemma mok_ret st v : mok (ret v) st v.
Proof. exists st. split; [reflexivity|apply pres_refl]. Qed.

Lemma mok_eval w e st v : mok (w e) st v -> mok (eval w e) st v.
Proof.
  intros (st1 & E1 & C1). unfold mok, eval, mbind, get, modify, ret. rewrite E1.
  eexists. split; [reflexivity|]. eapply pres_trans; [exact C1|apply pres_set_cur].
Qed.
Lemma mok_evaldef w e st v : v <> VUndef -> mok (w e) st v -> mok (evaldef w e) st v.
Proof.
  intros Hv H. unfold evaldef. apply mok_bind with (x := v). apply mok_eval; exact H.
  intros st1 _. destruct v; try apply mok_ret. congruence.
Qed.

Lemma mok_dataref w accs : forall r st v, cacc_eval accs r = Some v -> mok (dataref_access w (map cacc_node accs) r) st v.
Proof.
  induction accs as [|a rest IH]; intros r st v E; cbn [map dataref_access cacc_eval] in *.
  - inversion E; subst. apply mok_ret.
  - destruct a as [ns k|ns i]; cbn [cacc_node cacc_ns] in *; unfold mbind at 1; cbn [ret];
      destruct r; try discriminate; cbn [is_nullsafe];
      try (destruct ns; [inversion E; subst; apply mok_ret|discriminate]);
      apply IH; exact E.
Qed.

Section Env.
Variable st0 : mstate.
Let env := sc_lookup (ctx st0).
Hypothesis env_core : forall k v, env k = Some v -> core_value v = true.
Hypothesis ij_core : forall v, c_ij cf = Some v -> core_value v = true.

Lemma cacc_core accs : forall r v, core_value r = true -> cacc_eval accs r = Some v -> core_value v = true.
Proof.
  induction accs as [|a rest IH]; intros r v Hc E; cbn [cacc_eval] in E. inversion E; subst; exact Hc.
  destruct r; try discriminate.
  - destruct (cacc_ns a); inversion E; reflexivity.
  - destruct (cacc_ns a); inversion E; reflexivity.
  - destruct a; [discriminate|]. apply (IH _ _ (core_list_index l i Hc) E).
  - destruct a; [|discriminate]. apply (IH _ _ (core_map_key m k Hc) E).
Qed.

Lemma ceval_core e : forall v, ceval (c_ij cf) env e = Some v -> core_value v = true.
Proof.
  induction e as [| x | z | s | key accs | a IHa | a IHa | op a IHa c IHc | c IHc a IHa d IHd | k x]; intros v E; cbn [ceval] in E.
  - inversion E; reflexivity.
  - inversion E; reflexivity.
  - apply cint_inv in E. destruct E as [-> Hs]. exact Hs.
  - inversion E; reflexivity.
  - destruct (is_ident key); [|discriminate]. destruct (bstr_eqb key n_ij).
    + destruct (c_ij cf) as [iv|] eqn:Ei; [|discriminate]. apply (cacc_core accs iv); auto.
    + apply (cacc_core accs _ v) in E; auto. destruct (env key) eqn:Ek; [eapply env_core; eauto|reflexivity].
  - destruct (ceval (c_ij cf) env a) as [[| | |z| | | |]|]; try discriminate. apply cint_inv in E. destruct E as [-> Hs]. exact Hs.
  - destruct (ceval (c_ij cf) env a); [|discriminate]. inversion E; reflexivity.
  - pose proof (ceval_bin _ _ op a c v E) as Hb. cbn [ceval] in E.
    destruct op; try (destruct Hb as (x & y & _ & _ & Hb); inversion Hb; subst; auto; fail); clear Hb.
    + destruct (ceval (c_ij cf) env a) as [[| |[|]| | | | |]|]; try discriminate. inversion E; reflexivity.
      destruct (ceval (c_ij cf) env c) as [[| |y| | | | |]|]; try discriminate. inversion E; reflexivity.
    + destruct (ceval (c_ij cf) env a) as [[| |[|]| | | | |]|]; try discriminate.
      destruct (ceval (c_ij cf) env c) as [[| |y| | | | |]|]; try discriminate. inversion E; reflexivity. inversion E; reflexivity.
    + destruct (ceval (c_ij cf) env a) as [x|] eqn:Ea; [|discriminate]. destruct (c_nullish x). apply IHc; exact E. inversion E; subst. apply IHa; reflexivity.
  - destruct (ceval (c_ij cf) env c) as [x|]; [|discriminate]. destruct (truthy x); [apply IHa|apply IHd]; exact E.
  - destruct (env (x ++ jk_index)) as [[| | |i| | | |]|] eqn:Ei; try discriminate. destruct k.
    + inversion E; subst. eapply env_core; eauto.
    + inversion E; reflexivity.
    + destruct (env (x ++ c_lastindex)) as [[| | |l| | | |]|]; try discriminate. inversion E; reflexivity.
Qed.

Lemma mok_lookup st k v : ctx st = ctx st0 -> env k = Some v -> mok (m_lookup k) st v.
Proof.
  intros Hc Hk. unfold mok, m_lookup. rewrite Hc. fold (env k). rewrite Hk. exists st. split; [reflexivity|apply pres_refl].
Qed.

Lemma walk_S f n st v : mok (walk_node cf (walk cf f) n) (set_cur st (pos_of n)) v -> mok (walk cf (S f) n) st v.
Proof.
  intros (st' & E & C). exists st'. cbn [walk]. unfold walk_body, mbind, modify. split; [exact E|].
  eapply pres_trans; [apply pres_set_cur|exact C].
Qed.

Lemma core_small z : core_value (VInt z) = true -> small z = true.
Proof. intro H; exact H. Qed.

(* interp_ceval: for every fuel above the depth of the expression and every
   state whose scope is that of st0, the walker returns the value of ceval *)
Theorem interp_ceval e : forall fuel st v, (cdepth e < fuel)%nat -> ctx st = ctx st0 ->
  ceval (c_ij cf) env e = Some v -> mok (walk cf fuel (cnode e)) st v.
Proof.
  induction e as [| x | z | s | key accs | a IHa | a IHa | op a IHa c IHc | c IHc a IHa d IHd | k x];
    intros fuel st v Hf Hctx E; (destruct fuel as [|f]; [cbn in Hf; lia|]); cbn [cdepth] in Hf;
    apply walk_S; cbn [cnode];
    match goal with |- mok _ ?s _ => set (st1 := s) end;
    assert (Hc1 : ctx st1 = ctx st0) by (subst st1; cbn; exact Hctx);
    clearbody st1; cbn [ceval] in E.
  - inversion E; subst. cbn [walk_node]. apply mok_ret.
  - inversion E; subst. cbn [walk_node]. apply mok_ret.
  - apply cint_inv in E. destruct E as [-> _]. cbn [walk_node]. apply mok_ret.
  - inversion E; subst. cbn [walk_node]. apply mok_ret.
  - (* variable *)
    cbn [walk_node]. change s_ij with n_ij. destruct (is_ident key); [|discriminate].
    destruct (bstr_eqb key n_ij).
    + destruct (c_ij cf) as [iv|]; [|discriminate]. apply mok_bind with (x := iv). apply mok_ret. intros s1 _. apply mok_dataref; exact E.
    + apply mok_bind with (x := match env key with Some v0 => v0 | None => VUndef end).
      * unfold mok, m_lookup, env. rewrite Hc1. destruct (sc_lookup (ctx st0) key); eexists; (split; [reflexivity|first [apply pres_refl|apply pres_bump]]).
      * intros s1 _. apply mok_dataref; exact E.
  - (* neg *)
    cbn [walk_node]. destruct (ceval (c_ij cf) env a) as [[| | |z| | | |]|] eqn:Ea; try discriminate.
    apply cint_inv in E. destruct E as [-> Hs].
    apply mok_bind with (x := VInt z). apply mok_evaldef; [discriminate|]. apply IHa; [lia|exact Hc1|reflexivity].
    intros s1 _. rewrite (wrap64_small _ Hs). apply mok_ret.
  - (* not *)
    cbn [walk_node]. destruct (ceval (c_ij cf) env a) as [x|] eqn:Ea; [|discriminate]. inversion E; subst.
    apply mok_bind with (x := x). apply mok_eval. apply IHa; [lia|exact Hc1|reflexivity]. intros s1 _. apply mok_ret.
  - (* binary *)
    assert (Ha : forall x s1, ctx s1 = ctx st0 -> ceval (c_ij cf) env a = Some x -> mok (walk cf f (cnode a)) s1 x) by (intros; apply IHa; [lia|assumption|assumption]).
    assert (Hb : forall x s1, ctx s1 = ctx st0 -> ceval (c_ij cf) env c = Some x -> mok (walk cf f (cnode c)) s1 x) by (intros; apply IHc; [lia|assumption|assumption]).
    cbn [walk_node].
    pose proof (ceval_bin _ _ op a c v E) as Hv.
    destruct op;
      try (destruct Hv as (x & y & Ea & Ec & Hv); pose proof (ceval_core a _ Ea) as Cx; pose proof (ceval_core c _ Ec) as Cy;
           apply mok_bind with (x := x);
             [first [apply mok_evaldef; [inversion Hv; discriminate|] | apply mok_eval]; apply Ha; [exact Hc1|exact Ea] | intros s1 Hs1];
           apply mok_bind with (x := y);
             [first [apply mok_evaldef; [inversion Hv; discriminate|] | apply mok_eval]; apply Hb; [congruence|exact Ec] | intros s2 Hs2];
           inversion Hv; subst;
           cbn [arith lift]; try match goal with Hz : (_ =? 0)%Z = false |- _ => rewrite Hz end;
           first [ rewrite wrap64_small by assumption; apply mok_ret
                 | unfold lift; rewrite compare_small by assumption; apply mok_ret
                 | cbn; apply mok_ret ]; fail); clear Hv.
    + (* or *)
      destruct (ceval (c_ij cf) env a) as [[| |[|]| | | | |]|] eqn:Ea; try discriminate.
      * inversion E; subst. apply mok_bind with (x := VBool true). apply mok_eval. apply Ha; [exact Hc1|reflexivity]. intros s1 _. apply mok_ret.
      * destruct (ceval (c_ij cf) env c) as [[| |y| | | | |]|] eqn:Ec; try discriminate. inversion E; subst.
        apply mok_bind with (x := VBool false). apply mok_eval. apply Ha; [exact Hc1|reflexivity]. intros s1 Hs1. cbn [truthy].
        apply mok_bind with (x := VBool y). apply mok_eval. apply Hb; [congruence|reflexivity]. intros s2 _. apply mok_ret.
    + (* and *)
      destruct (ceval (c_ij cf) env a) as [[| |[|]| | | | |]|] eqn:Ea; try discriminate.
      * destruct (ceval (c_ij cf) env c) as [[| |y| | | | |]|] eqn:Ec; try discriminate. inversion E; subst.
        apply mok_bind with (x := VBool true). apply mok_eval. apply Ha; [exact Hc1|reflexivity]. intros s1 Hs1. cbn [truthy].
        apply mok_bind with (x := VBool y). apply mok_eval. apply Hb; [congruence|reflexivity]. intros s2 _. apply mok_ret.
      * inversion E; subst. apply mok_bind with (x := VBool false). apply mok_eval. apply Ha; [exact Hc1|reflexivity]. intros s1 _. apply mok_ret.
    + (* elvis *)
      destruct (ceval (c_ij cf) env a) as [x|] eqn:Ea; [|discriminate].
      apply mok_bind with (x := x). apply mok_eval. apply Ha; [exact Hc1|reflexivity]. intros s1 Hs1.
      change (is_nullish x) with (c_nullish x). destruct (c_nullish x).
      apply mok_eval. apply Hb; [congruence|exact E]. inversion E; subst. apply mok_ret.
  - (* ternary *)
    cbn [walk_node]. destruct (ceval (c_ij cf) env c) as [x|] eqn:Ec; [|discriminate].
    apply mok_bind with (x := x). apply mok_eval. apply IHc; [lia|exact Hc1|reflexivity]. intros s1 Hs1.
    destruct (truthy x); apply mok_eval; [apply IHa|apply IHd]; try lia; try congruence; exact E.
  - (* loop function *)
    cbn [walk_node].
    replace (fn_is (cloop_name k) n_index || fn_is (cloop_name k) n_isFirst || fn_is (cloop_name k) n_isLast) with true by (destruct k; reflexivity).
    unfold loop_func. change s_index with jk_index. change s_lastindex with c_lastindex.
    destruct (env (x ++ jk_index)) as [[| | |i| | | |]|] eqn:Ei; try discriminate.
    apply mok_bind with (x := VInt i). apply mok_lookup; assumption. intros s1 Hs1.
    destruct k.
    + replace (fn_is (cloop_name LIndex) n_index) with true by reflexivity. inversion E; subst. apply mok_ret.
    + replace (fn_is (cloop_name LIsFirst) n_index) with false by reflexivity.
      replace (fn_is (cloop_name LIsFirst) n_isFirst) with true by reflexivity. inversion E; subst. apply mok_ret.
    + replace (fn_is (cloop_name LIsLast) n_index) with false by reflexivity.
      replace (fn_is (cloop_name LIsLast) n_isFirst) with false by reflexivity.
      destruct (env (x ++ c_lastindex)) as [[| | |l| | | |]|] eqn:El; try discriminate. inversion E; subst.
      apply mok_bind with (x := VInt l). apply mok_lookup; [congruence|assumption]. intros s2 _. apply mok_ret.
Qed.
End Env.
End Bridge.

(* ---- both halves together ---- *)
Theorem gen_expr_correct_partial cf sc je st e fuel v :
  (cdepth e < fuel)%nat ->
  env_rel sc (c_ij cf) (sc_lookup (ctx st)) je ->
  ceval (c_ij cf) (sc_lookup (ctx st)) e = Some v ->
  (exists st', walk cf fuel (cnode e) st = (Ok v, st') /\ pres st st')
  /\ js_eval je (cgen sc e) = Ok (to_js v).
Proof.
  intros Hf ER E. split.
  - apply (interp_ceval cf st) with (fuel := fuel); auto.
    + exact (er_core_some _ _ _ _ ER).
    + intros x Hx. exact (er_core_ij _ _ _ _ ER x Hx).
  - exact (proj1 (cgen_correct sc (c_ij cf) (sc_lookup (ctx st)) je ER e v E)).
Qed.

Lemma bstr_eqb_refl_iff x : True <-> bstr_eqb x x = true.
Proof. split; [intros _; apply bstr_eqb_refl|auto]. Qed.

(* for the print stage (Proofs/MiniJSStmt.v): String() of a printable scalar is JavaScript's ToString of its image *)
Lemma tostring_value_string v : printable_scalar v = true ->
  exists s, value_string v = Ok s /\ js_tostring (to_js v) = Some s.
Proof.
  destruct v; try discriminate; intros _.
  - exists s_null. split; reflexivity.
  - destruct x; eexists; split; reflexivity.
  - exists (dec_of_Z z). split; reflexivity.
  - exists s. split; reflexivity.
Qed.
