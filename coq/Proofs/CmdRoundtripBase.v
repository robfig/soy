(* C17 at command level: runs of the procedures of Model/Parser.v on a state described by
   the items it will deliver.  [runs Q r s a]: for every large enough fuel, r returns a in the base
   state s with new token plumbing, which satisfies Q.  A rule about a procedure is proved by going
   through its steps with [runs_bind], each step being a run of its own: next, peek, expect, the
   lifted expression parser (from a [Parses] judgement of Proofs/ExprParserRules.v), or a hypothesis
   of the rule. *)
From Soy Require Import Model.Bytes Model.Outcome Model.Ast Model.Token Model.RawText Model.ExprParser Model.Parser Generated.Tables
  Spec.ExprSyntax Spec.CmdSyntax Proofs.ExprParserRules Proofs.ParserBase.
From Coq Require Import Lia.
Open Scope N_scope.

(* every state the rules talk about is [set_ps s p sc]: the base state s (namespace, aliases,
   inmsg flag) with the token plumbing p and the log of nested scanners sc *)
Definition set_ps (s : cst) (p : pst) (sc : list scanrec) : cst :=
  {| c_p := p; c_ns := c_ns s; c_al := c_al s; c_inmsg := c_inmsg s; c_scans := sc |}.

Lemma set_ps_eta s : set_ps s (c_p s) (c_scans s) = s.
Proof. destruct s; reflexivity. Qed.

(* r f lf returns a in the state s with its token plumbing (and scanner log) replaced, for all large fuels *)
Definition cok2 {A} (r : nat -> nat -> cres A) (s : cst) (a : A) (rest : list tok) : Prop :=
  exists p' sc', stream p' = rest /\ inv p' /\
    exists f0, forall f lf, (f0 <= f)%nat -> (f0 <= lf)%nat -> r f lf = COk a (set_ps s p' sc').

(* the part of the state a body never changes: inside a {msg} or not, namespace, aliases *)
Definition base_ok (ns : bstr) (al : list (bstr * bstr)) (m : bool) (s : cst) : Prop :=
  c_inmsg s = m /\ c_ns s = ns /\ c_al s = al.

Definition CRun {A} (ns : bstr) (al : list (bstr * bstr)) (m : bool) (r : nat -> nat -> cst -> cres A)
           (ts : list tok) (a : A) (rest : list tok) : Prop :=
  forall s p sc, stream p = ts -> inv p -> base_ok ns al m s -> cok2 (fun f lf => r f lf (set_ps s p sc)) s a rest.

Lemma base_ok_inmsg ns al m s b : base_ok ns al m s -> base_ok ns al b (set_inmsg s b).
Proof. intros (_ & H1 & H2). repeat split; assumption. Qed.

Definition runs {A} (Q : pst -> Prop) (r : nat -> nat -> cres A) (s : cst) (a : A) : Prop :=
  exists p' sc', Q p' /\ exists f0, forall f lf, (f0 <= f)%nat -> (f0 <= lf)%nat -> r f lf = COk a (set_ps s p' sc').

Definition Run {A} (ns : bstr) (al : list (bstr * bstr)) (m : bool) (Q : pst -> Prop) (r : nat -> nat -> cst -> cres A)
           (ts : list tok) (a : A) : Prop :=
  forall s p sc, feeds p ts -> base_ok ns al m s -> runs Q (fun f lf => r f lf (set_ps s p sc)) s a.

Lemma CRun_Run {A} ns al m (r : nat -> nat -> cst -> cres A) ts a rest :
  CRun ns al m r ts a rest <-> Run ns al m (fun p => feeds p rest) r ts a.
Proof.
  split.
  - intros H s p sc [Hs Hi] Hm. destruct (H s p sc Hs Hi Hm) as (p' & sc' & H1 & H2 & H3). exists p', sc'. split; [split|]; assumption.
  - intros H s p sc Hs Hi Hm. destruct (H s p sc (conj Hs Hi) Hm) as (p' & sc' & [H1 H2] & H3). exists p', sc'. auto.
Qed.

(* a loop that its caller runs on the level's budget *)
Lemma Run_diag {A} ns al m Q (r : nat -> nat -> cst -> cres A) ts a :
  Run ns al m Q r ts a -> Run ns al m Q (fun f _ s => r f f s) ts a.
Proof.
  intros H s p sc H0 Hm. destruct (H s p sc H0 Hm) as (p' & sc' & H' & f0 & E).
  exists p', sc'. split; [exact H'|]. exists f0. intros f lf Hf _. apply E; exact Hf.
Qed.
Arguments Run_diag {A ns al m Q r ts a}.

Lemma runs_ret {A} (Q : pst -> Prop) (a : A) s p sc : Q p -> runs Q (fun _ _ => COk a (set_ps s p sc)) s a.
Proof. intros H. exists p, sc. split; [exact H|]. exists 0%nat. reflexivity. Qed.

(* x, then the rest of the procedure in the state x leaves; the base state of x may differ ({msg}) *)
Lemma runs_bind {A B} (Q1 Q : pst -> Prop) (x : nat -> nat -> cres A) (K : A -> cst -> nat -> nat -> cres B) s1 s a b :
  runs Q1 x s1 a -> (forall p1 sc1, Q1 p1 -> runs Q (K a (set_ps s1 p1 sc1)) s b) ->
  runs Q (fun f lf => cbind (x f lf) (fun a' s' => K a' s' f lf)) s b.
Proof.
  intros (p1 & sc1 & H1 & f1 & E1) HK. destruct (HK p1 sc1 H1) as (p' & sc' & H' & f2 & E2).
  exists p', sc'. split; [exact H'|]. exists (max f1 f2). intros f lf Hf Hlf.
  rewrite E1 by lia. apply E2; lia.
Qed.

Lemma runs_ext {A} Q (r r' : nat -> nat -> cres A) s a : (forall f lf, r f lf = r' f lf) -> runs Q r' s a -> runs Q r s a.
Proof. intros E (p' & sc' & H' & f0 & E'). exists p', sc'. split; [exact H'|]. exists f0. intros. rewrite E. apply E'; assumption. Qed.

(* a procedure unfolded in place leaves its steps nested to the left *)
Lemma runs_assoc {A B C} Q (x : nat -> nat -> cres A) (K1 : A -> cst -> nat -> nat -> cres B) (K2 : B -> cst -> nat -> nat -> cres C) s c :
  runs Q (fun f lf => cbind (x f lf) (fun a s' => cbind (K1 a s' f lf) (fun b s2 => K2 b s2 f lf))) s c ->
  runs Q (fun f lf => cbind (cbind (x f lf) (fun a s' => K1 a s' f lf)) (fun b s2 => K2 b s2 f lf)) s c.
Proof. apply runs_ext. intros. apply cbind_assoc. Qed.

(* one more unit of either budget, to unfold a loop *)
Lemma runs_Sf {A} Q (r : nat -> nat -> cres A) s a : runs Q (fun f lf => r (S f) lf) s a -> runs Q r s a.
Proof.
  intros (p' & sc' & H' & f0 & E). exists p', sc'. split; [exact H'|]. exists (S f0).
  intros [|f] lf Hf Hlf; [lia|]. apply E; lia.
Qed.
Lemma runs_Slf {A} Q (r : nat -> nat -> cres A) s a : runs Q (fun f lf => r f (S lf)) s a -> runs Q r s a.
Proof.
  intros (p' & sc' & H' & f0 & E). exists p', sc'. split; [exact H'|]. exists (S f0).
  intros f [|lf] Hf Hlf; [lia|]. apply E; lia.
Qed.

Lemma c_backup_set_ps s p sc : c_backup (set_ps s p sc) = set_ps s (p_backup p) sc.
Proof. reflexivity. Qed.
Lemma c_backup2_set_ps s p sc t : c_backup2 (set_ps s p sc) t = set_ps s (p_backup2 p t) sc.
Proof. reflexivity. Qed.
Lemma c_inmsg_set_ps s p sc : c_inmsg (set_ps s p sc) = c_inmsg s.
Proof. reflexivity. Qed.
Lemma set_inmsg_set_ps s p sc b : set_inmsg (set_ps s p sc) b = set_ps (set_inmsg s b) p sc.
Proof. reflexivity. Qed.

Section Steps.
Variables (inlen : N) (s : cst) (p : pst) (sc : list scanrec).

Lemma not_3_le_peek ts : feeds p ts -> (3 <=? p_peek p)%nat = false.
Proof. intros [_ Hi]. apply Nat.leb_gt. unfold inv in Hi. lia. Qed.

Lemma run_next t l : feeds p (t :: l) -> runs (fun p1 => fed p1 t l) (fun _ _ => c_next (set_ps s p sc)) s t.
Proof.
  intros H. destruct (next_feeds _ _ _ H) as (p1 & Hn & H1). exists p1, sc. split; [exact H1|]. exists 0%nat. intros.
  unfold c_next. cbn [c_p set_ps]. rewrite (not_3_le_peek _ H), Hn. reflexivity.
Qed.

Lemma run_peek t l : feeds p (t :: l) -> runs (fun p1 => feeds p1 (t :: l)) (fun _ _ => c_peek (set_ps s p sc)) s t.
Proof.
  intros H. destruct (peek_feeds _ _ _ H) as (p1 & Hn & H1). exists p1, sc. split; [exact H1|]. exists 0%nat. intros.
  unfold c_peek. cbn [c_p set_ps]. rewrite (not_3_le_peek _ H), Hn. reflexivity.
Qed.

Lemma run_expect typ ctx t l : t_typ t = typ -> feeds p (t :: l) ->
  runs (fun p1 => fed p1 t l) (fun _ _ => c_expect inlen typ ctx (set_ps s p sc)) s t.
Proof.
  intros Ht H. unfold c_expect. eapply runs_bind; [apply run_next, H|]. intros p1 sc1 H1. cbv beta.
  unfold tis. rewrite Ht, N.eqb_refl. apply runs_ret, H1.
Qed.

Lemma run_expr ts e rest : Parses 0 ts e rest -> feeds p ts ->
  runs (fun p1 => feeds p1 rest) (fun f _ => lift_expr inlen parse_expr f 0 (set_ps s p sc)) s e.
Proof.
  intros HP [Hs Hi]. destruct (HP p Hs Hi) as (p1 & H1 & H2 & f0 & HF).
  exists p1, sc. split; [split; assumption|]. exists f0. intros f lf Hf _.
  unfold lift_expr. cbn [c_p set_ps]. rewrite (HF f f Hf Hf). reflexivity.
Qed.
End Steps.
Arguments run_next {s p sc t l}.
Arguments run_peek {s p sc t l}.
Arguments run_expect {inlen s p sc typ ctx t l}.
Arguments run_expr {inlen s p sc ts e rest}.

(* [run L as p1 H1]: the procedure in the goal starts with the step whose run is L (an atomic run
   above, a Run hypothesis of the rule); go on with the rest, in the plumbing p1 that the step leaves
   and that satisfies H1.  The premises of L are taken from the context. *)
Tactic Notation "run" uconstr(L) "as" simple_intropattern(p1) simple_intropattern(H1) :=
  repeat lazymatch goal with |- runs _ (fun _ _ => cbind (cbind _ _) _) _ _ => apply runs_assoc end;
  eapply runs_bind; [eapply L; eassumption|]; intros p1 ?; cbv beta zeta; intros H1.

Lemma tis_typ t c c' : t_typ t = c -> tis t c' = (c =? c').
Proof. intros <-. reflexivity. Qed.
Lemma tis_eq t c : t_typ t = c -> tis t c = true.
Proof. intros <-. unfold tis. apply N.eqb_refl. Qed.
Lemma tis_ne t c : t_typ t <> c -> tis t c = false.
Proof. intros H. unfold tis. apply N.eqb_neq. exact H. Qed.
