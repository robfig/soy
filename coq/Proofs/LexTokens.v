(* "Lexes exactly this token": what the scanner model does, in expression position (state
   lexInsideTag), on an input whose next bytes are the text of one item of the kinds the expression
   printer (Model/AstPrint.v) emits, under the look-ahead condition each kind needs.

   The scanner's cursor is described by [span l w s]: the input from l.start on is w ++ s and
   l.pos stands after w (w = the pending text of the current item, s = what is still to be read).
   [steps k] is k iterations of the state machine.  Identifiers are ASCII here: the unicode classes
   are assumed to agree with the ASCII classes on ASCII (true of the regenerated tables), and names
   with non-ASCII letters are outside these lemmas. *)
From Soy Require Import Model.Bytes Model.Utf8 Model.Outcome Model.Token Generated.Tables Model.Lexer
  Proofs.LexerPrim Proofs.LexerStates Proofs.LexRun.
From Soy Require Export Proofs.BytesBase.
From Coq Require Import ZifyBool Lia.
Open Scope Z_scope.

Lemma drop_S_cons (n : nat) (s : bstr) c r : drop n s = c :: r -> drop (S n) s = r.
Proof. intros H. rewrite <- Nat.add_1_r, <- drop_drop, H. reflexivity. Qed.

Lemma drop_nil_len (n : nat) (s : bstr) : drop n s = [] -> (length s <= n)%nat.
Proof. exact (BytesBase.drop_nil_len n s). Qed.

Lemma drop_cons_len (n : nat) (s : bstr) c r : drop n s = c :: r -> (n + S (length r) = length s)%nat.
Proof.
  intros H. pose proof (f_equal (@length _) H) as HL. rewrite drop_length in HL. cbn in HL. lia.
Qed.

Lemma in_set_one k r : (k < 128)%N -> in_set [k] r = (r =? Z.of_N k).
Proof. intros Hk. unfold in_set, mem. cbn [existsb]. lia. Qed.

Section Steps.
Variable uni_letter uni_digit : Z -> bool.
Variable inp : bstr.
Variable base : Z.
Notation ilen := (Z.of_nat (length inp)).
Notation step := (Lexer.step uni_letter uni_digit inp ilen base).

Fixpoint steps (k : nat) (st : lstate) (l : lx) : outcome (lstate * lx) :=
  match k with
  | O => Ok (st, l)
  | S k' => '(st', l') <- step st l ;; steps k' st' l'
  end.

Lemma steps_app k1 k2 st l st1 l1 :
  steps k1 st l = Ok (st1, l1) -> steps (k1 + k2) st l = steps k2 st1 l1.
Proof.
  revert st l; induction k1 as [|k1 IH]; intros st l H; cbn in *.
  - injection H as -> ->. reflexivity.
  - destruct (step st l) as [[st' l']| | | | |]; cbn in *; try discriminate. apply IH. exact H.
Qed.

Lemma steps_done k l : steps k LDone l = Ok (LDone, l).
Proof. induction k as [|k IH]; [reflexivity|]. cbn [steps Lexer.step bind]. exact IH. Qed.

Lemma steps_one st l st1 l1 : step st l = Ok (st1, l1) -> steps 1 st l = Ok (st1, l1).
Proof. intros H. cbn. rewrite H. reflexivity. Qed.

Lemma steps_two st l st1 l1 st2 l2 : step st l = Ok (st1, l1) -> step st1 l1 = Ok (st2, l2) -> steps 2 st l = Ok (st2, l2).
Proof. intros H1 H2. cbn [steps]. rewrite H1. cbn [bind]. rewrite H2. reflexivity. Qed.

(* a run with enough fuel passes through the same states *)
Lemma run_steps k : forall st l st1 l1 fuel,
  steps k st l = Ok (st1, l1) -> (forall j, (j < k)%nat -> forall stj lj, steps j st l = Ok (stj, lj) -> stj <> LDone) ->
  run uni_letter uni_digit inp ilen base (k + fuel) st l = run uni_letter uni_digit inp ilen base fuel st1 l1.
Proof.
  induction k as [|k IH]; intros st l st1 l1 fuel H Hnd; cbn [steps] in H.
  - injection H as -> ->. reflexivity.
  - assert (Hst : st <> LDone) by (apply (Hnd 0%nat ltac:(lia) st l); reflexivity).
    destruct (step st l) as [[st' l']| | | | |] eqn:E; cbn in H; try discriminate.
    change (S k + fuel)%nat with (S (k + fuel)). rewrite (run_S _ _ _ _ _ _ _ _ Hst), E. cbn [bind].
    apply IH; [exact H|]. intros j Hj stj lj Hs. apply (Hnd (S j) ltac:(lia) stj lj). cbn [steps]. rewrite E. exact Hs.
Qed.

End Steps.

Definition letter_b (c : N) : bool := ((65 <=? c) && (c <=? 90) || (97 <=? c) && (c <=? 122) || (c =? 95))%N.
Definition digit_b (c : N) : bool := ((48 <=? c) && (c <=? 57))%N.
Definition alnum_b (c : N) : bool := letter_b c || digit_b c.
(* what may follow an identifier or a number: the end of the input or an ASCII byte that is not alphanumeric *)
Definition stops (s : bstr) : Prop := match s with [] => True | c :: _ => (c < 128)%N /\ alnum_b c = false end.

Section Tokens.
Variable inp : bstr.
Notation ilen := (Z.of_nat (length inp)).

(* the cursor: from l.start the input reads w ++ s, and l.pos is after w *)
Definition span (l : lx) (w s : bstr) : Prop :=
  0 <= l_start l <= ilen /\ drop (Z.to_nat (l_start l)) inp = w ++ s /\ l_pos l = l_start l + Z.of_nat (length w).

Lemma span_cur l w s : span l w s -> 0 <= l_pos l /\ drop (Z.to_nat (l_pos l)) inp = s.
Proof.
  intros (H0 & Hd & Hp). split; [lia|].
  replace (Z.to_nat (l_pos l)) with (Z.to_nat (l_start l) + length w)%nat by lia.
  rewrite <- drop_drop, Hd. apply drop_app_len.
Qed.

Lemma span_bounds l w s : span l w s -> 0 <= l_start l <= l_pos l /\ l_pos l + Z.of_nat (length s) = ilen.
Proof.
  intros (H0 & Hd & Hp). pose proof (f_equal (@length _) Hd) as HL. rewrite drop_length, app_length in HL. lia.
Qed.

(* the lexer after reading one more rune of width 1 / after meeting the end of input *)
Definition adv (l : lx) : lx :=
  {| l_pos := l_pos l + Z.of_nat 1; l_start := l_start l; l_width := Z.of_nat 1; l_dd := l_dd l; l_last := l_last l;
     l_out := l_out l; l_ticks := l_ticks l + 1 |}.
Definition ateof (l : lx) : lx :=
  {| l_pos := l_pos l; l_start := l_start l; l_width := 0; l_dd := l_dd l; l_last := l_last l;
     l_out := l_out l; l_ticks := l_ticks l + 1 |}.

Lemma next_ascii l w c s : span l w (c :: s) -> (c < 128)%N ->
  next inp ilen l = Ok (Z.of_N c, adv l) /\ span (adv l) (w ++ [c]) s.
Proof.
  intros Hs Hc. pose proof (span_cur _ _ _ Hs) as (Hp & Hd). pose proof (span_bounds _ _ _ Hs) as (Hb & Hl).
  cbn [length] in Hl. split.
  - unfold next. destruct (ilen <=? l_pos l) eqn:E; [lia|]. destruct (l_pos l <? 0) eqn:E2; [lia|].
    rewrite Hd. unfold decode_rune. apply N.ltb_lt in Hc. rewrite Hc. reflexivity.
  - destruct Hs as (H0 & Hds & Hps). unfold span, adv. cbn [l_start l_pos]. split; [exact H0|]. split.
    + rewrite Hds, <- app_assoc. reflexivity.
    + rewrite app_length. cbn [length]. lia.
Qed.

Lemma next_eof l w : span l w [] -> next inp ilen l = Ok (eof, ateof l).
Proof.
  intros Hs. pose proof (span_bounds _ _ _ Hs) as (Hb & Hl). cbn [length] in Hl.
  unfold next. destruct (ilen <=? l_pos l) eqn:E; [reflexivity|lia].
Qed.

Lemma span_backup l w c s : span l w (c :: s) -> span (backup (adv l)) w (c :: s).
Proof.
  intros (H0 & Hd & Hp). unfold span, backup, adv, set_pos. cbn [l_start l_pos l_width]. repeat split; try assumption; lia.
Qed.

Lemma span_eof_backup l w : span l w [] -> span (backup (ateof l)) w [].
Proof. intros (H0 & Hd & Hp). unfold span, backup, ateof, set_pos. cbn [l_pos l_start l_width]. repeat split; try assumption; lia. Qed.

Lemma span_ignore l w s : span l w s -> span (ignore l) [] s.
Proof.
  intros Hs. pose proof (span_cur _ _ _ Hs) as (Hp & Hd).
  pose proof (span_bounds _ _ _ Hs) as (Hb & Hl).
  unfold span, ignore, set_start. cbn [l_start l_pos length]. repeat split; [exact Hp|lia|exact Hd|lia].
Qed.

Definition head_ascii (s : bstr) : Prop := match s with [] => True | c :: _ => (c < 128)%N end.
Definition head_digit (s : bstr) : bool := match s with c :: _ => digit_b c | [] => false end.
Definition head_rune (s : bstr) : Z := match s with [] => eof | c :: _ => Z.of_N c end.

Lemma head_rune_digit s : head_ascii s -> gen_isDigit (head_rune s) = head_digit s.
Proof. destruct s as [|c s]; [reflexivity|]. cbn. unfold gen_isDigit, digit_b. lia. Qed.

(* reading one rune and stepping back: nothing moves; the rune is eof or the next (ASCII) byte *)
Lemma next_back l w s : span l w s -> head_ascii s ->
  exists l1, next inp ilen l = Ok (head_rune s, l1) /\ span (backup l1) w s /\
    l_out l1 = l_out l /\ l_last l1 = l_last l /\ l_dd l1 = l_dd l /\ l_start l1 = l_start l.
Proof.
  intros Hs Ha. destruct s as [|c s].
  - exists (ateof l). rewrite (next_eof l w Hs). split; [reflexivity|]. split; [apply span_eof_backup; exact Hs|repeat split].
  - destruct (next_ascii l w c s Hs Ha) as (Hn & _). exists (adv l). split; [exact Hn|].
    split; [apply span_backup; exact Hs|repeat split].
Qed.

Lemma peek_span l w s : span l w s -> head_ascii s ->
  exists l1, peek inp ilen l = Ok (head_rune s, l1) /\ span l1 w s /\
    l_out l1 = l_out l /\ l_last l1 = l_last l /\ l_dd l1 = l_dd l.
Proof.
  intros Hs Ha. destruct (next_back l w s Hs Ha) as (l1 & Hn & Hs1 & Ho & Hla & Hd & _).
  exists (backup l1). unfold peek. rewrite Hn. split; [reflexivity|]. split; [exact Hs1|]. split; [exact Ho|]. split; [exact Hla|exact Hd].
Qed.

(* accept(set): one ASCII byte of the set is taken, anything else is left *)
Lemma accept_yes set l w c s : span l w (c :: s) -> (c < 128)%N -> in_set set (Z.of_N c) = true ->
  accept inp ilen set l = Ok (true, adv l) /\ span (adv l) (w ++ [c]) s.
Proof.
  intros Hs Hc Hin. destruct (next_ascii l w c s Hs Hc) as (Hn & Hs'). unfold accept. rewrite Hn. cbn [bind]. rewrite Hin.
  split; [reflexivity|exact Hs'].
Qed.

Lemma accept_no set l w s : span l w s -> head_ascii s -> in_set set (head_rune s) = false ->
  exists l1, accept inp ilen set l = Ok (false, l1) /\ span l1 w s /\
    l_out l1 = l_out l /\ l_last l1 = l_last l /\ l_dd l1 = l_dd l /\ l_start l1 = l_start l.
Proof.
  intros Hs Ha Hin. destruct (next_back l w s Hs Ha) as (l1 & Hn & Hs1 & Ho). unfold accept. rewrite Hn. cbn [bind]. rewrite Hin.
  exists (backup l1). split; [reflexivity|]. split; [exact Hs1|exact Ho].
Qed.

Lemma loop_fuel_span l w s : span l w s -> (length s < loop_fuel ilen l)%nat.
Proof. intros Hs. pose proof (span_bounds _ _ _ Hs) as (Hb & Hl). unfold loop_fuel. lia. Qed.

Lemma slice_span l w s : span l w s -> slice inp ilen (l_start l) (l_pos l) = Ok w.
Proof.
  intros Hs. pose proof (span_bounds _ _ _ Hs) as (Hb & Hlen). destruct Hs as (H0 & Hd & Hp). unfold slice.
  destruct ((l_start l <? 0) || (l_pos l <? l_start l) || (ilen <? l_pos l)) eqn:E; [lia|].
  rewrite Hd. replace (Z.to_nat (l_pos l - l_start l)) with (length w) by lia. rewrite take_app_len. reflexivity.
Qed.

Variable base : Z.

Definition mktok (t : N) (l : lx) (w : bstr) : tok := {| t_typ := t; t_pos := Z.to_N (base + l_pos l); t_val := w |}.
Definition emitted (t : N) (l : lx) (w : bstr) : lx :=
  {| l_pos := l_pos l; l_start := l_pos l; l_width := l_width l; l_dd := l_dd l; l_last := mktok t l w;
     l_out := mktok t l w :: l_out l; l_ticks := l_ticks l |}.

Lemma emit_span t l w s : span l w s ->
  emit inp ilen base t l = Ok (emitted t l w) /\ span (emitted t l w) [] s.
Proof.
  intros Hs. pose proof (span_bounds _ _ _ Hs) as (Hb & Hl). pose proof (span_cur _ _ _ Hs) as (Hp & Hd).
  destruct Hs as (H0 & Hds & Hps). split.
  - unfold emit. destruct (ilen <? l_pos l) eqn:E; [lia|]. unfold slice.
    destruct ((l_start l <? 0) || (l_pos l <? l_start l) || (ilen <? l_pos l)) eqn:E2; [lia|].
    cbn [bind]. rewrite Hds. replace (Z.to_nat (l_pos l - l_start l)) with (length w) by lia.
    rewrite take_app_len. reflexivity.
  - unfold span, emitted. cbn [l_start l_pos length]. repeat split; [lia|lia|exact Hd|lia].
Qed.

(* an item of type t and text w was sent (its position is not recorded here), nothing else changed *)
Definition sent (t : N) (w : bstr) (l l' : lx) : Prop :=
  exists p, l_out l' = {| t_typ := t; t_pos := p; t_val := w |} :: l_out l /\
            l_last l' = {| t_typ := t; t_pos := p; t_val := w |} /\ l_dd l' = l_dd l.
Definition unsent (l l' : lx) : Prop := l_out l' = l_out l /\ l_last l' = l_last l /\ l_dd l' = l_dd l.

Lemma sent_emitted t l0 l w : l_out l = l_out l0 -> l_last l = l_last l0 -> l_dd l = l_dd l0 -> sent t w l0 (emitted t l w).
Proof. intros H1 H2 H3. exists (Z.to_N (base + l_pos l)). unfold emitted, mktok. cbn. rewrite H1, H3. auto. Qed.

Lemma unsent_trans l l1 l2 : unsent l l1 -> unsent l1 l2 -> unsent l l2.
Proof. unfold unsent. intros (A & B & C) (A' & B' & C'). repeat split; congruence. Qed.

End Tokens.

(* evaluate the tests of a state function on a concrete rune *)
Ltac eval_tests :=
  repeat (
    match goal with
    | |- context [if ?c then _ else _] =>
        let v := eval vm_compute in c in
        lazymatch v with true => idtac | false => idtac end;
        change c with v; cbv iota
    end; cbn [bind]; cbn beta iota).

(* tests on an abstract rune: the branches that contradict what is known about it are closed by lia *)
Ltac unfold_classes :=
  unfold gen_isSpaceEOL, gen_isSpace, gen_isEndOfLine, gen_isLetterOrUnderscore, gen_isDigit,
         inside_tag_single_syms, inside_tag_cmp_syms, letter_b, digit_b, alnum_b, eof in *; cbn [existsb] in *.
Ltac kill_tests :=
  unfold_classes;
  repeat (match goal with
  | |- context [if ?c then _ else _] =>
      first [ let H := fresh "Hf" in assert (H : c = false) by lia; rewrite H; clear H
            | let H := fresh "Ht" in assert (H : c = true) by lia; rewrite H; clear H ]
  end; cbn [bind]; cbn beta iota).

Section Sends.
Context {uni_letter uni_digit : Z -> bool} {inp : bstr} {base : Z}.
Notation ilen := (Z.of_nat (length inp)).
Notation step := (Lexer.step uni_letter uni_digit inp ilen base).
Notation steps := (steps uni_letter uni_digit inp base).
Notation span := (span inp).

(* a state function that ends by sending the pending text [w] leaves the machine inside the tag after [w] *)
Lemma step_sends {st l l1 t w s} : span l1 w s -> unsent l l1 ->
  step st l = emit_to inp ilen base t LInsideTag l1 ->
  exists l', step st l = Ok (LInsideTag, l') /\ span l' [] s /\ sent t w l l'.
Proof.
  intros Hs (Ho & Hla & Hd) H. destruct (emit_span inp base t l1 w s Hs) as (He & Hs').
  exists (emitted base t l1 w). split; [|split; [exact Hs'|apply sent_emitted; assumption]].
  rewrite H. unfold emit_to. rewrite He. reflexivity.
Qed.

(* the same as one step from lexInsideTag, and as the second of two steps *)
Lemma steps1_sends {l l1 t w s} : span l1 w s -> unsent l l1 ->
  lex_inside_tag inp ilen base l = emit_to inp ilen base t LInsideTag l1 ->
  exists l', steps 1 LInsideTag l = Ok (LInsideTag, l') /\ span l' [] s /\ sent t w l l'.
Proof.
  intros Hs Hu H. destruct (step_sends (st := LInsideTag) Hs Hu H) as (l' & H1 & R). exists l'. split; [apply steps_one; exact H1|exact R].
Qed.

Lemma steps2_sends {l st lb l1 t w s} : step LInsideTag l = Ok (st, lb) -> span l1 w s -> unsent lb l1 ->
  step st lb = emit_to inp ilen base t LInsideTag l1 -> unsent l lb ->
  exists l', steps 2 LInsideTag l = Ok (LInsideTag, l') /\ span l' [] s /\ sent t w l l'.
Proof.
  intros H1 Hs Hu H (Ho & Hla & Hd).
  destruct (step_sends Hs Hu H) as (l' & H2 & Hs' & (p & A & B & C)).
  exists l'. split; [exact (steps_two _ _ _ _ _ _ _ _ _ _ H1 H2)|]. split; [exact Hs'|]. exists p. repeat split; congruence.
Qed.

End Sends.

Section Punct.
Variable uni_letter uni_digit : Z -> bool.
Variable inp : bstr.
Variable base : Z.
Notation ilen := (Z.of_nat (length inp)).
Notation step := (Lexer.step uni_letter uni_digit inp ilen base).
Notation steps := (steps uni_letter uni_digit inp base).
Notation span := (span inp).

Lemma lex_space l c s : span l [] (c :: s) -> gen_isSpaceEOL (Z.of_N c) = true ->
  exists l', steps 1 LInsideTag l = Ok (LInsideTag, l') /\ span l' [] s /\ unsent l l'.
Proof.
  intros Hs Hc. assert (Hlt : (c < 128)%N) by (apply isSpaceEOL_nonneg in Hc; lia).
  destruct (next_ascii inp l [] c s Hs Hlt) as (Hn & Hs').
  exists (ignore (adv l)). split; [|split; [apply (span_ignore inp _ _ _ Hs')|repeat split]].
  apply steps_one. cbn [Lexer.step]. unfold lex_inside_tag. rewrite Hn. cbn [bind]. rewrite Hc. reflexivity.
Qed.

(* the single-character items: [ ] ( ) , : | * % + *)
Definition punct_table : list (N * N) :=
  [(91, itemLeftBracket); (93, itemRightBracket); (40, itemLeftParen); (41, itemRightParen); (44, itemComma);
   (58, itemColon); (124, itemPipe); (42, itemMul); (37, itemMod); (43, itemAdd)]%N.

Lemma lex_punct l c t s : span l [] (c :: s) -> assoc c punct_table = Some t ->
  exists l', steps 1 LInsideTag l = Ok (LInsideTag, l') /\ span l' [] s /\ sent t [c] l l'.
Proof.
  intros Hs Ht.
  assert (Hc : (c < 128)%N).
  { unfold punct_table, assoc in Ht.
    repeat match type of Ht with (if (c =? ?k)%N then _ else _) = _ => destruct (N.eqb_spec c k); [lia|] end. discriminate. }
  destruct (next_ascii inp l [] c s Hs Hc) as (Hn & Hs').
  apply (steps1_sends Hs'); [repeat split|].
  unfold lex_inside_tag. rewrite Hn. cbn [bind].
  unfold punct_table, assoc in Ht.
  repeat match type of Ht with (if (c =? ?k)%N then _ else _) = _ =>
    destruct (N.eqb_spec c k) as [->|_]; [injection Ht as <-; eval_tests; reflexivity|] end.
  discriminate.
Qed.

(* lexInsideTag at a letter or underscore, at a digit: over to lexIdent, lexNumber with the rune unread *)
Lemma inside_tag_letter l r l1 : next inp ilen l = Ok (r, l1) -> gen_isLetterOrUnderscore r = true ->
  step LInsideTag l = Ok (LIdent, backup l1).
Proof. intros Hn Hr. cbn [Lexer.step]. unfold lex_inside_tag. rewrite Hn. cbn [bind]. kill_tests. reflexivity. Qed.

Lemma inside_tag_digit l r l1 : next inp ilen l = Ok (r, l1) -> gen_isDigit r = true ->
  step LInsideTag l = Ok (LNumber, backup l1).
Proof. intros Hn Hr. cbn [Lexer.step]. unfold lex_inside_tag. rewrite Hn. cbn [bind]. kill_tests. reflexivity. Qed.

End Punct.

Lemma assoc_s_key {A} (k : bstr) (tbl : list (bstr * A)) v :
  assoc_s k tbl = Some v -> exists k', In (k', v) tbl /\ bstr_eqb k k' = true.
Proof.
  induction tbl as [|[k' v'] tbl IH]; cbn; [discriminate|]. destruct (bstr_eqb k k') eqn:E.
  - intros H. injection H as <-. exists k'. split; [left; reflexivity|exact E].
  - intros H. destruct (IH H) as (k2 & Hin & Hk). exists k2. split; [right; exact Hin|exact Hk].
Qed.

(* no keyword starts with $ . or ? *)
Lemma sigil_not_builtin c w : (c = 36 \/ c = 46 \/ c = 63)%N -> assoc_s (c :: w) builtin_idents = None.
Proof.
  intros Hc. destruct (assoc_s (c :: w) builtin_idents) as [t|] eqn:E; [|reflexivity]. exfalso.
  destruct (assoc_s_key _ _ _ E) as (k' & Hin & Hk).
  assert (Hall : forallb (fun p => match fst p with c :: _ => negb ((c =? 36) || (c =? 46) || (c =? 63))%N | [] => true end) builtin_idents = true)
    by (vm_compute; reflexivity).
  rewrite forallb_forall in Hall. specialize (Hall _ Hin). cbn [fst] in Hall.
  destruct k' as [|c' w']; cbn [bstr_eqb] in Hk; [discriminate|].
  apply Bool.andb_true_iff in Hk. destruct Hk as [Hk _]. apply N.eqb_eq in Hk. subst c'. lia.
Qed.

Lemma stops_head_ascii s : stops s -> head_ascii s.
Proof. destruct s; cbn; tauto. Qed.

Lemma alnums_head_ascii cs s : forallb (fun c => (c <? 128)%N && alnum_b c) cs = true -> stops s -> head_ascii (cs ++ s).
Proof.
  destruct cs as [|c cs]; [intros _; apply stops_head_ascii|]. cbn. intros H _.
  apply Bool.andb_true_iff in H. destruct H as [H _]. apply Bool.andb_true_iff in H. destruct H as [H _]. apply N.ltb_lt. exact H.
Qed.

(* a word with a sigil prefix is no keyword: lexIdent sends it with the type of the prefix *)
Lemma sigil_word ity c pre cs : (c = 36 \/ c = 46 \/ c = 63)%N ->
  ity <> itemLiteral -> ity <> itemCss -> ity <> itemCommandEnd -> ity <> itemSpecialChar ->
  ity = match assoc_s ((c :: pre) ++ cs) builtin_idents with Some t' => t' | None => ity end /\
  (assoc_s ((c :: pre) ++ cs) builtin_idents = None -> ity <> itemCommandEnd /\ ity <> itemSpecialChar).
Proof. intros Hc H1 H2 H3 H4. cbn [app]. rewrite (sigil_not_builtin c _ Hc). auto. Qed.

Section Idents.
Variable uni_letter uni_digit : Z -> bool.
(* on ASCII the unicode classes are the ASCII classes (true of the regenerated tables: LexPrintTop.tables_ascii) *)
Hypothesis letter_ascii : forall c, (c < 128)%N -> uni_letter (Z.of_N c) = ((65 <=? c) && (c <=? 90) || (97 <=? c) && (c <=? 122))%N.
Hypothesis digit_ascii : forall c, (c < 128)%N -> uni_digit (Z.of_N c) = digit_b c.
Hypothesis letter_eof : uni_letter (-1) = false.
Hypothesis digit_eof : uni_digit (-1) = false.
Variable inp : bstr.
Variable base : Z.
Notation ilen := (Z.of_nat (length inp)).
Notation step := (Lexer.step uni_letter uni_digit inp ilen base).
Notation steps := (steps uni_letter uni_digit inp base).
Notation span := (span inp).

Lemma is_alnum_ascii c : (c < 128)%N -> is_alnum uni_letter uni_digit (Z.of_N c) = alnum_b c.
Proof.
  intros Hc. unfold is_alnum, gen_isAlphaNumeric. rewrite (letter_ascii c Hc), (digit_ascii c Hc).
  unfold alnum_b, letter_b, digit_b. lia.
Qed.

Lemma is_alnum_eof : is_alnum uni_letter uni_digit eof = false.
Proof. unfold is_alnum, gen_isAlphaNumeric, eof. rewrite letter_eof, digit_eof. reflexivity. Qed.

(* `for isAlphaNumeric(l.next()) {}; l.backup()` over a run of ASCII alphanumerics *)
Lemma alnum_loop_run cs : forall l w s fuel, span l w (cs ++ s) -> forallb (fun c => (c <? 128)%N && alnum_b c) cs = true -> stops s ->
  (length cs < fuel)%nat ->
  exists l1, alnum_loop uni_letter uni_digit inp ilen fuel l = Ok l1 /\ span (backup l1) (w ++ cs) s /\
             l_out l1 = l_out l /\ l_last l1 = l_last l /\ l_dd l1 = l_dd l.
Proof.
  induction cs as [|c cs IH]; intros l w s fuel Hs Hall Hst Hf; (destruct fuel as [|f]; [cbn in Hf; lia|]); cbn [alnum_loop].
  - cbn [app] in Hs. rewrite app_nil_r. destruct s as [|c s].
    + rewrite (next_eof inp l w Hs). cbn [bind]. rewrite is_alnum_eof. eexists. split; [reflexivity|].
      split; [apply span_eof_backup; exact Hs|repeat split].
    + destruct Hst as [Hc Hna]. destruct (next_ascii inp l w c s Hs Hc) as (Hn & Hs'). rewrite Hn. cbn [bind].
      rewrite (is_alnum_ascii c Hc), Hna. eexists. split; [reflexivity|]. split; [apply span_backup; exact Hs|repeat split].
  - cbn [forallb] in Hall. apply Bool.andb_true_iff in Hall. destruct Hall as [Hc Hall]. apply Bool.andb_true_iff in Hc. destruct Hc as [Hc Ha].
    apply N.ltb_lt in Hc. cbn [app] in Hs. destruct (next_ascii inp l w c (cs ++ s) Hs Hc) as (Hn & Hs'). rewrite Hn. cbn [bind].
    rewrite (is_alnum_ascii c Hc), Ha.
    destruct (IH (adv l) (w ++ [c]) s f Hs' Hall Hst ltac:(cbn in Hf; lia)) as (l1 & H1 & H2 & H3).
    exists l1. split; [exact H1|]. rewrite <- app_assoc in H2. split; [exact H2|exact H3].
Qed.

(* the type lexIdent gives a plain word: a keyword's, else itemIdent *)
Definition word_type (w : bstr) : N := match assoc_s w builtin_idents with Some t => t | None => itemIdent end.

(* the end of lexIdent: absorb the rest of the identifier, look the word up, send it as the keyword it is, else as [ity] *)
Lemma ident_tail ity t l2 pre cs s :
  span l2 pre (cs ++ s) -> forallb (fun c => (c <? 128)%N && alnum_b c) cs = true -> stops s ->
  t = match assoc_s (pre ++ cs) builtin_idents with Some t' => t' | None => ity end ->
  t <> itemLiteral -> t <> itemCss ->
  (assoc_s (pre ++ cs) builtin_idents = None -> ity <> itemCommandEnd /\ ity <> itemSpecialChar) ->
  exists l4,
    (l3 <- alnum_loop uni_letter uni_digit inp ilen (loop_fuel ilen l2) l2 ;;
     let l4 := backup l3 in
     word <- slice inp ilen (l_start l4) (l_pos l4) ;;
     match assoc_s word builtin_idents with
     | Some t =>
         l5 <- emit inp ilen base t l4 ;;
         if (t =? itemLiteral)%N then Ok (LLiteral, l5)
         else if (t =? itemCss)%N then Ok (LCss, l5)
         else Ok (LInsideTag, l5)
     | None =>
         if (ity =? itemCommandEnd)%N || (ity =? itemSpecialChar)%N then
           errorf base e_ident (set_pos l4 (l_start l4))
         else emit_to inp ilen base ity LInsideTag l4
     end) = emit_to inp ilen base t LInsideTag l4 /\ span l4 (pre ++ cs) s /\ unsent l2 l4.
Proof.
  intros Hs Hcs Hst -> Hnl Hnc Hity.
  destruct (alnum_loop_run cs l2 pre s (loop_fuel ilen l2) Hs Hcs Hst) as (l3 & Hloop & Hs3 & Hu3).
  { pose proof (loop_fuel_span inp _ _ _ Hs) as Hf. rewrite app_length in Hf. lia. }
  exists (backup l3). split; [|split; [exact Hs3|exact Hu3]].
  rewrite Hloop. cbn [bind]. cbv zeta. rewrite (slice_span inp _ _ _ Hs3). cbn [bind].
  destruct (assoc_s (pre ++ cs) builtin_idents) as [t|].
  - destruct (N.eqb_spec t itemLiteral); [contradiction|]. destruct (N.eqb_spec t itemCss); [contradiction|]. reflexivity.
  - destruct (Hity eq_refl) as [H1 H2].
    destruct (N.eqb_spec ity itemCommandEnd); [contradiction|]. destruct (N.eqb_spec ity itemSpecialChar); [contradiction|]. reflexivity.
Qed.

(* a word: letter or underscore, then alphanumerics; two steps (lexInsideTag steps back, lexIdent scans) *)
Lemma lex_word l c0 cs s : span l [] (c0 :: cs ++ s) -> (c0 < 128)%N -> letter_b c0 = true ->
  forallb (fun c => (c <? 128)%N && alnum_b c) cs = true -> stops s ->
  word_type (c0 :: cs) <> itemLiteral -> word_type (c0 :: cs) <> itemCss ->
  exists l', steps 2 LInsideTag l = Ok (LInsideTag, l') /\ span l' [] s /\ sent (word_type (c0 :: cs)) (c0 :: cs) l l'.
Proof.
  intros Hs Hc0 Hl0 Hcs Hst Hnl Hnc.
  destruct (next_ascii inp l [] c0 (cs ++ s) Hs Hc0) as (Hn & _).
  pose proof (span_backup inp l [] c0 (cs ++ s) Hs) as Hsb.
  destruct (next_ascii inp _ [] c0 (cs ++ s) Hsb Hc0) as (Hn2 & Hs2).
  assert (Hr : gen_isLetterOrUnderscore (Z.of_N c0) = true) by (unfold gen_isLetterOrUnderscore, letter_b in *; lia).
  destruct (ident_tail itemIdent _ _ _ cs s Hs2 Hcs Hst eq_refl Hnl Hnc) as (l4 & Ht & Hs4 & Hu4); [intros _; split; discriminate|].
  refine (steps2_sends (inside_tag_letter _ _ _ _ _ _ _ Hn Hr) Hs4 Hu4 _ ltac:(repeat split)).
  cbn [Lexer.step]. unfold lex_ident. rewrite Hn2. cbn [bind]. kill_tests. exact Ht.
Qed.

Lemma lex_dollar l cs s : span l [] (36 :: cs ++ s)%N ->
  forallb (fun c => (c <? 128)%N && alnum_b c) cs = true -> stops s ->
  exists l', steps 2 LInsideTag l = Ok (LInsideTag, l') /\ span l' [] s /\ sent itemDollarIdent (36 :: cs)%N l l'.
Proof.
  intros Hs Hcs Hst.
  destruct (next_ascii inp l [] 36%N (cs ++ s) Hs ltac:(lia)) as (Hn & _).
  pose proof (span_backup inp l [] 36%N (cs ++ s) Hs) as Hsb.
  destruct (next_ascii inp _ [] 36%N (cs ++ s) Hsb ltac:(lia)) as (Hn2 & Hs2).
  destruct (sigil_word itemDollarIdent 36%N [] cs (or_introl eq_refl)) as (Hty & Hnone); [discriminate..|].
  destruct (ident_tail itemDollarIdent _ _ _ cs s Hs2 Hcs Hst Hty) as (l4 & Ht & Hs4 & Hu4); [discriminate|discriminate|exact Hnone|].
  assert (H1 : step LInsideTag l = Ok (LIdent, backup (adv l))).
  { cbn [Lexer.step]. unfold lex_inside_tag. rewrite Hn. cbn [bind]. eval_tests. reflexivity. }
  refine (steps2_sends H1 Hs4 Hu4 _ ltac:(repeat split)).
  cbn [Lexer.step]. unfold lex_ident. rewrite Hn2. cbn [bind]. eval_tests. exact Ht.
Qed.

(* .ident / .N: the type depends on the character after the dot *)
Lemma lex_dot l cs s : span l [] (46 :: cs ++ s)%N ->
  forallb (fun c => (c <? 128)%N && alnum_b c) cs = true -> stops s ->
  exists l', steps 2 LInsideTag l = Ok (LInsideTag, l') /\ span l' [] s /\
             sent (if head_digit (cs ++ s) then itemDotIndex else itemDotIdent) (46 :: cs)%N l l'.
Proof.
  intros Hs Hcs Hst.
  destruct (next_ascii inp l [] 46%N (cs ++ s) Hs ltac:(lia)) as (Hn & _).
  pose proof (span_backup inp l [] 46%N (cs ++ s) Hs) as Hsb.
  destruct (next_ascii inp _ [] 46%N (cs ++ s) Hsb ltac:(lia)) as (Hn2 & Hs2).
  pose proof (alnums_head_ascii cs s Hcs Hst) as Hha.
  destruct (next_back inp _ _ (cs ++ s) Hs2 Hha) as (l2 & Hn3 & Hs3 & Ho & Hla & Hd & _).
  set (ity := if head_digit (cs ++ s) then itemDotIndex else itemDotIdent).
  destruct (sigil_word ity 46%N [] cs (or_intror (or_introl eq_refl))) as (Hty & Hnone); [unfold ity; destruct (head_digit _); discriminate..|].
  destruct (ident_tail ity _ _ _ cs s Hs3 Hcs Hst Hty) as (l4 & Ht & Hs4 & Hu4);
    [unfold ity; destruct (head_digit _); discriminate..|exact Hnone|].
  assert (H1 : step LInsideTag l = Ok (LIdent, backup (adv l))).
  { cbn [Lexer.step]. unfold lex_inside_tag. rewrite Hn. cbn [bind]. eval_tests. reflexivity. }
  refine (steps2_sends H1 Hs4 (unsent_trans _ (backup l2) _ (conj Ho (conj Hla Hd)) Hu4) _ ltac:(repeat split)).
  cbn [Lexer.step]. unfold lex_ident. rewrite Hn2. cbn [bind]. eval_tests. rewrite Hn3. cbn [bind].
  rewrite (head_rune_digit _ Hha). exact Ht.
Qed.

Lemma lex_qdot l cs s : span l [] (63 :: 46 :: cs ++ s)%N ->
  forallb (fun c => (c <? 128)%N && alnum_b c) cs = true -> stops s ->
  exists l', steps 2 LInsideTag l = Ok (LInsideTag, l') /\ span l' [] s /\
             sent (if head_digit (cs ++ s) then itemQuestionDotIndex else itemQuestionDotIdent) (63 :: 46 :: cs)%N l l'.
Proof.
  intros Hs Hcs Hst.
  destruct (next_ascii inp l [] 63%N (46%N :: cs ++ s) Hs ltac:(lia)) as (Hn & Hs1).
  destruct (next_ascii inp _ _ 46%N (cs ++ s) Hs1 ltac:(lia)) as (Hn' & _).
  set (lb := set_pos (adv (adv l)) (l_pos (adv (adv l)) - 2)).
  assert (Hsb : span lb [] (63 :: 46 :: cs ++ s)%N).
  { destruct Hs as (H0 & Hd & Hp). unfold LexTokens.span, lb, set_pos, adv. cbn [l_start l_pos length] in *. repeat split; try assumption; lia. }
  destruct (next_ascii inp lb [] 63%N (46%N :: cs ++ s) Hsb ltac:(lia)) as (Hn2 & Hs2).
  destruct (next_ascii inp _ _ 46%N (cs ++ s) Hs2 ltac:(lia)) as (Hn3 & Hs3).
  pose proof (alnums_head_ascii cs s Hcs Hst) as Hha.
  destruct (next_back inp _ _ (cs ++ s) Hs3 Hha) as (l2 & Hn4 & Hs4 & Ho & Hla & Hd & _).
  set (ity := if head_digit (cs ++ s) then itemQuestionDotIndex else itemQuestionDotIdent).
  destruct (sigil_word ity 63%N [46%N] cs (or_intror (or_intror eq_refl))) as (Hty & Hnone); [unfold ity; destruct (head_digit _); discriminate..|].
  destruct (ident_tail ity _ _ _ cs s Hs4 Hcs Hst Hty) as (l4 & Ht & Hs5 & Hu4);
    [unfold ity; destruct (head_digit _); discriminate..|exact Hnone|].
  assert (H1 : step LInsideTag l = Ok (LIdent, lb)).
  { cbn [Lexer.step]. unfold lex_inside_tag. rewrite Hn. cbn [bind]. eval_tests. rewrite Hn'. cbn [bind]. eval_tests. reflexivity. }
  refine (steps2_sends H1 Hs5 (unsent_trans _ (backup l2) _ (conj Ho (conj Hla Hd)) Hu4) _ ltac:(repeat split)).
  cbn [Lexer.step]. unfold lex_ident. rewrite Hn2. cbn [bind]. eval_tests. rewrite Hn3. cbn [bind]. eval_tests.
  rewrite Hn4. cbn [bind]. rewrite (head_rune_digit _ Hha). exact Ht.
Qed.

End Idents.

Section Ops.
Variable uni_letter uni_digit : Z -> bool.
Variable inp : bstr.
Variable base : Z.
Notation ilen := (Z.of_nat (length inp)).
Notation steps := (steps uni_letter uni_digit inp base).
Notation span := (span inp).

Lemma lex_q2 l c t s : span l [] (63 :: c :: s)%N ->
  (c = 91 /\ t = itemQuestionKey \/ c = 58 /\ t = itemElvis)%N ->
  exists l', steps 1 LInsideTag l = Ok (LInsideTag, l') /\ span l' [] s /\ sent t [63; c]%N l l'.
Proof.
  intros Hs Hc.
  destruct (next_ascii inp l [] 63%N (c :: s) Hs ltac:(lia)) as (Hn & Hs1).
  destruct (next_ascii inp _ _ c s Hs1 ltac:(lia)) as (Hn' & Hs2).
  apply (steps1_sends Hs2); [repeat split|].
  unfold lex_inside_tag. rewrite Hn. cbn [bind]. eval_tests. rewrite Hn'. cbn [bind].
  destruct Hc as [[-> ->]|[-> ->]]; eval_tests; reflexivity.
Qed.

(* a lone ? (what follows is not . [ or :) *)
Lemma lex_ternif l s : span l [] (63 :: s)%N -> head_ascii s ->
  match s with c :: _ => c <> 46 /\ c <> 91 /\ c <> 58 | [] => True end%N ->
  exists l', steps 1 LInsideTag l = Ok (LInsideTag, l') /\ span l' [] s /\ sent itemTernIf [63]%N l l'.
Proof.
  intros Hs Ha Hc.
  destruct (next_ascii inp l [] 63%N s Hs ltac:(lia)) as (Hn & Hs1).
  destruct (next_back inp _ _ s Hs1 Ha) as (l2 & Hn' & Hs2 & Ho & Hla & Hd & _).
  apply (steps1_sends Hs2); [exact (conj Ho (conj Hla Hd))|].
  unfold lex_inside_tag. rewrite Hn. cbn [bind]. eval_tests. rewrite Hn'. cbn [bind].
  assert (E : (head_rune s =? 46) = false /\ (head_rune s =? 91) = false /\ (head_rune s =? 58) = false)
    by (destruct s; [repeat split|cbn [head_rune]; lia]).
  destruct E as (-> & -> & ->). reflexivity.
Qed.

(* "-" after an operand is the binary operator *)
Lemma lex_sub l s : span l [] (45 :: s)%N -> ends_term (t_typ (l_last l)) = true ->
  exists l', steps 1 LInsideTag l = Ok (LInsideTag, l') /\ span l' [] s /\ sent itemSub [45]%N l l'.
Proof.
  intros Hs He.
  destruct (next_ascii inp l [] 45%N s Hs ltac:(lia)) as (Hn & Hs1).
  apply (steps1_sends Hs1); [repeat split|].
  unfold lex_inside_tag. rewrite Hn. cbn [bind]. eval_tests.
  unfold lex_negative. change (l_last (adv l)) with (l_last l). rewrite He. reflexivity.
Qed.

(* "-" where an operand is expected, not followed by a digit, is the unary operator *)
Lemma lex_negate l s : span l [] (45 :: s)%N -> ends_term (t_typ (l_last l)) = false ->
  head_ascii s -> head_digit s = false ->
  exists l', steps 1 LInsideTag l = Ok (LInsideTag, l') /\ span l' [] s /\ sent itemNegate [45]%N l l'.
Proof.
  intros Hs He Ha Hd.
  destruct (next_ascii inp l [] 45%N s Hs ltac:(lia)) as (Hn & Hs1).
  destruct (peek_span inp _ _ s Hs1 Ha) as (l1 & Hp1 & Hsp1 & Hu1).
  destruct (peek_span inp l1 _ s Hsp1 Ha) as (l2 & Hp2 & Hsp2 & Hu2).
  assert (Hdig : (48 <=? head_rune s) && (head_rune s <=? 57) = false).
  { destruct s as [|c s]; [reflexivity|]. cbn in Hd |- *. unfold digit_b in Hd. lia. }
  assert (H : lex_inside_tag inp ilen base l = emit_to inp ilen base itemNegate LInsideTag (if 48 <=? head_rune s then l2 else l1)).
  { unfold lex_inside_tag. rewrite Hn. cbn [bind]. eval_tests.
    unfold lex_negative. change (l_last (adv l)) with (l_last l). rewrite He. cbn [negb]. rewrite Hp1. cbn [bind].
    destruct (48 <=? head_rune s); [rewrite Hp2; cbn [bind andb] in *; rewrite Hdig|]; reflexivity. }
  destruct (48 <=? head_rune s).
  - exact (steps1_sends (l := l) Hsp2 (unsent_trans _ l1 _ Hu1 Hu2) H).
  - exact (steps1_sends (l := l) Hsp1 Hu1 H).
Qed.

(* "/" not followed by "}" *)
Lemma lex_div l s : span l [] (47 :: s)%N -> head_ascii s -> match s with c :: _ => c <> 125%N | [] => True end ->
  exists l', steps 1 LInsideTag l = Ok (LInsideTag, l') /\ span l' [] s /\ sent itemDiv [47]%N l l'.
Proof.
  intros Hs Ha Hc.
  destruct (next_ascii inp l [] 47%N s Hs ltac:(lia)) as (Hn & Hs1).
  destruct (peek_span inp _ _ s Hs1 Ha) as (l1 & Hp1 & Hsp1 & Hu1).
  apply (steps1_sends (l := l) Hsp1 Hu1).
  unfold lex_inside_tag. rewrite Hn. cbn [bind]. eval_tests. rewrite Hp1. cbn [bind].
  assert (E : (head_rune s =? 125) = false) by (destruct s as [|c s]; [reflexivity|cbn; lia]).
  rewrite E. eval_tests. reflexivity.
Qed.

(* the comparison operators: < <= > >= != == ; the one-character forms must not be followed by "=" *)
Definition cmp_table : list (bstr * N) :=
  [([60], itemLt); ([60; 61], itemLte); ([62], itemGt); ([62; 61], itemGte); ([33; 61], itemNotEq); ([61; 61], itemEq)]%N.

(* the tail of the comparison case of lexInsideTag: accept("="), look the symbol up, emit *)
Lemma cmp_tail l0 l w eq s t : span l w (eq ++ s) -> (eq = [61%N] \/ eq = [] /\ head_ascii s /\ head_rune s <> 61) ->
  assoc_s (w ++ eq) arith_items = Some t -> unsent l0 l ->
  exists l4,
    ('(_, l4) <- accept inp ilen inside_tag_cmp_accept l ;;
     sym <- slice inp ilen (l_start l4) (l_pos l4) ;;
     match assoc_s sym arith_items with
     | None => errorf base e_symbol l4
     | Some t => emit_to inp ilen base t LInsideTag l4
     end) = emit_to inp ilen base t LInsideTag l4 /\ span l4 (w ++ eq) s /\ unsent l0 l4.
Proof.
  intros Hs Heq Ht Hu. destruct Heq as [->|(-> & Ha & Hne)].
  - destruct (accept_yes inp inside_tag_cmp_accept l w 61%N s Hs ltac:(lia) ltac:(reflexivity)) as (Hac & Hs2).
    exists (adv l). rewrite Hac. cbn [bind]. rewrite (slice_span inp _ _ _ Hs2). cbn [bind]. rewrite Ht. auto.
  - rewrite app_nil_r in *. cbn [app] in Hs.
    destruct (accept_no inp inside_tag_cmp_accept l w s Hs Ha) as (l4 & Hac & Hs2 & Ho & Hla & Hd & _).
    { unfold inside_tag_cmp_accept. rewrite in_set_one by lia. lia. }
    exists l4. rewrite Hac. cbn [bind]. rewrite (slice_span inp _ _ _ Hs2). cbn [bind]. rewrite Ht.
    split; [reflexivity|]. split; [exact Hs2|]. exact (unsent_trans _ _ _ Hu (conj Ho (conj Hla Hd))).
Qed.

Lemma lex_cmp1 l c t s : span l [] (c :: s) -> (c = 60 /\ t = itemLt \/ c = 62 /\ t = itemGt)%N ->
  head_ascii s -> match s with c2 :: _ => c2 <> 61%N | [] => True end ->
  exists l', steps 1 LInsideTag l = Ok (LInsideTag, l') /\ span l' [] s /\ sent t [c] l l'.
Proof.
  intros Hs Hc Ha Hne.
  destruct (next_ascii inp l [] c s Hs ltac:(lia)) as (Hn & Hs1).
  destruct (cmp_tail l (adv l) [c] [] s t) as (l4 & Ht & Hs4 & Hu4); [exact Hs1| |destruct Hc as [[-> ->]|[-> ->]]; reflexivity|repeat split|].
  { right. split; [reflexivity|]. split; [exact Ha|]. destruct s; cbn [head_rune]; [discriminate|lia]. }
  rewrite app_nil_r in Hs4. apply (steps1_sends Hs4 Hu4).
  unfold lex_inside_tag. rewrite Hn. cbn [bind]. destruct Hc as [[-> ->]|[-> ->]]; eval_tests; exact Ht.
Qed.

Lemma lex_cmp2 l c t s : span l [] (c :: 61 :: s)%N ->
  (c = 60 /\ t = itemLte \/ c = 62 /\ t = itemGte \/ c = 33 /\ t = itemNotEq)%N ->
  exists l', steps 1 LInsideTag l = Ok (LInsideTag, l') /\ span l' [] s /\ sent t [c; 61]%N l l'.
Proof.
  intros Hs Hc.
  destruct (next_ascii inp l [] c (61%N :: s) Hs ltac:(lia)) as (Hn & Hs1).
  destruct (cmp_tail l (adv l) _ [61%N] s t Hs1) as (l4 & Ht & Hs4 & Hu4); [left; reflexivity|destruct Hc as [[-> ->]|[[-> ->]|[-> ->]]]; reflexivity|repeat split|].
  apply (steps1_sends Hs4 Hu4).
  unfold lex_inside_tag. rewrite Hn. cbn [bind]. destruct Hc as [[-> ->]|[[-> ->]|[-> ->]]]; eval_tests; exact Ht.
Qed.

Lemma lex_eqeq l s : span l [] (61 :: 61 :: s)%N ->
  exists l', steps 1 LInsideTag l = Ok (LInsideTag, l') /\ span l' [] s /\ sent itemEq [61; 61]%N l l'.
Proof.
  intros Hs.
  destruct (next_ascii inp l [] 61%N (61%N :: s) Hs ltac:(lia)) as (Hn & Hs1).
  destruct (peek_span inp _ _ (61%N :: s) Hs1 ltac:(cbn; lia)) as (lp & Hp & Hsp & Hup).
  destruct (cmp_tail l lp _ [61%N] s itemEq Hsp) as (l4 & Ht & Hs4 & Hu4); [left; reflexivity|reflexivity|exact Hup|].
  apply (steps1_sends Hs4 Hu4).
  unfold lex_inside_tag. rewrite Hn. cbn [bind]. eval_tests. rewrite Hp. cbn [bind head_rune]. eval_tests. exact Ht.
Qed.

End Ops.
