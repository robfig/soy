(* C02, parser shape, part 3: from the parser's shape to [wf_registry], the hypothesis of
   exec_impl_spec.

   [pwf] (ScopeParseShape.v, a theorem about every parse) differs from Spec/Cmd.v's [wf] in
   three ways.  Two of them are a side condition on the source ([no_stray]: file-level tags --
   {namespace}, {template}, a soydoc comment -- and {plural} occur only where the grammar puts
   them; the parser ACCEPTS them elsewhere, see compiled_registry_wf_refuted in Properties/C02.v).
   The third -- a placeholder holding a let, from a {let} written directly inside {msg} -- is
   excluded by the data-reference check (Model/Checker.v, CheckDataRefs): [bad_rejected]
   shows that the checker rejects EVERY template whose view contains a parent with a let as
   its only child (the let can never be used). *)
From Coq Require Import Lia.
From Soy Require Import Model.Bytes Model.Values Model.Outcome Model.Ast Model.Token Generated.Tables Model.RawText
  Model.Parser Model.ExprParser Model.RefView Model.Checker Spec.Cmd Spec.CallNames
  Proofs.ScopeNames Proofs.ScopeExprWf Proofs.ScopeParseShape.
From Soy Require Model.Compile.
Open Scope N_scope.

Fixpoint rt_bad (t : rt) : bool :=
  match t with
  | RT k kids =>
      (match k, kids with KOther, [RT (KLet _) _] => true | _, _ => false end) || existsb rt_bad kids
  end.

Lemma rt_ind' (P : rt -> Prop) : (forall k kids, Forall P kids -> P (RT k kids)) -> forall t, P t.
Proof.
  intros H. fix IH 1. intros [k kids]. apply H.
  induction kids as [|c r IHr]; constructor; [apply IH | exact IHr].
Qed.

Section Chk.
Variable templates : list template.
Variable params : list bstr.
Notation chk := (Checker.chk templates params).
Notation chk_body := (Checker.chk_body templates params).

Definition grows (c : cstate -> Checker.cres) : Prop :=
  forall st st', c st = CO st' -> (length (vars st) <= length (vars st'))%nat.
Definition rejects (c : cstate -> Checker.cres) : Prop := forall st, exists r, c st = CR r.

Lemma mark_len key : forall vs vs', mark key vs = Some vs' -> length vs' = length vs.
Proof.
  induction vs as [|v r IH]; intros vs' H; cbn [mark] in H; [discriminate|].
  destruct (bstr_eqb _ _); [injection H as <-; reflexivity|].
  destruct (mark key r) as [r'|] eqn:E; [|discriminate]. injection H as <-. cbn [length]. rewrite (IH r' eq_refl). reflexivity.
Qed.

Lemma run_each_grows cs : Forall grows cs -> grows (run_each cs).
Proof.
  induction 1 as [|c r Hc Hr IH]; intros st st' H; cbn [run_each] in H; [injection H as <-; lia|].
  unfold Checker.cbind in H. destruct (c st) as [st1|] eqn:E; [|discriminate].
  pose proof (Hc _ _ E). pose proof (IH _ _ H). lia.
Qed.
Lemma recurse_len cs st st' : Forall grows cs -> chk_recurse cs st = CO st' -> length (vars st') = length (vars st).
Proof.
  intros Hg H. unfold chk_recurse, Checker.cbind in H. destruct (run_each cs st) as [st1|] eqn:E; [|discriminate].
  pose proof (run_each_grows cs Hg _ _ E) as Hl.
  destruct (existsb _ _); [discriminate|]. injection H as <-. cbn [vars set_vars]. rewrite skipn_length. lia.
Qed.

Lemma visit_key_len key st st' : visit_key params key st = CO st' -> length (vars st') = length (vars st).
Proof.
  unfold visit_key. destruct (bstr_eqb key s_ij); [intros [= <-]; reflexivity|].
  destruct (mark key (vars st)) as [vs|] eqn:E; [intros [= <-]; cbn; apply (mark_len _ _ _ E)|].
  destruct (contains params key); [intros [= <-]; reflexivity | discriminate].
Qed.
Lemma check_call_len name ad hd pk st st' : check_call templates params name ad hd pk st = CO st' -> vars st' = vars st.
Proof.
  unfold check_call. destruct (find_template _ _); [|discriminate]. destruct (all_keys pk); [|discriminate].
  destruct (negb _); [discriminate|]. destruct hd; [intros [= <-]; reflexivity|].
  destruct (negb _); [discriminate | intros [= <-]; reflexivity].
Qed.
Lemma check_loop_func_len name a0 st st' : check_loop_func name a0 st = CO st' -> st' = st.
Proof.
  unfold check_loop_func. destruct (contains _ _); [|intros [= <-]; reflexivity].
  destruct a0; [|intros [= <-]; reflexivity]. destruct (existsb _ _); [intros [= <-]; reflexivity | discriminate].
Qed.

Lemma body_grows k cs : Forall grows cs -> grows (chk_body k cs).
Proof.
  intros Hg st st' H. destruct k; cbn [Checker.chk_body] in H.
  - rewrite (recurse_len _ _ _ Hg H). lia.
  - destruct (bstr_eqb _ _); [discriminate|]. unfold Checker.cbind in H.
    destruct (chk_recurse cs st) as [st1|] eqn:E; [|discriminate]. injection H as <-.
    cbn [vars push_var set_vars length]. rewrite (recurse_len _ _ _ Hg E). lia.
  - unfold Checker.cbind in H. destruct (check_call _ _ _ _ _ _ _) as [st1|] eqn:E; [|discriminate].
    rewrite (recurse_len _ _ _ Hg H), (check_call_len _ _ _ _ _ _ E). lia.
  - destruct cs as [|l [|body ie]]; try discriminate. unfold Checker.cbind in H.
    inversion Hg as [|? ? Hl Hg1]; subst. inversion Hg1 as [|? ? Hb Hie]; subst.
    destruct (l st) as [st1|] eqn:E1; [|discriminate].
    destruct (body _) as [st2|] eqn:E2; [|discriminate].
    pose proof (Hl _ _ E1). pose proof (Hb _ _ E2) as H2. cbn [vars push_var set_vars length] in H2.
    pose proof (run_each_grows ie Hie _ _ H) as H3. cbn [vars set_vars] in H3.
    destruct (vars st2); cbn [length tl] in *; lia.
  - unfold Checker.cbind in H. destruct (visit_key _ _ _) as [st1|] eqn:E; [|discriminate].
    rewrite (recurse_len _ _ _ Hg H), (visit_key_len _ _ _ E). lia.
  - unfold Checker.cbind in H. destruct (check_loop_func _ _ _) as [st1|] eqn:E; [|discriminate].
    rewrite (recurse_len _ _ _ Hg H), (check_loop_func_len _ _ _ _ E). lia.
  - discriminate.
  - rewrite (recurse_len _ _ _ Hg H). lia.
Qed.

Theorem chk_grows : forall t, grows (chk t).
Proof.
  apply rt_ind'. intros k kids IH. cbn [Checker.chk]. apply body_grows.
  induction IH; constructor; assumption.
Qed.
Lemma chks_grow kids : Forall grows (map chk kids).
Proof. induction kids; constructor; [apply chk_grows | assumption]. Qed.

Lemma run_each_rejects cs : Exists rejects cs -> rejects (run_each cs).
Proof.
  induction 1 as [c r Hc|c r Hr IH]; intros st; cbn [run_each]; unfold Checker.cbind.
  - destruct (Hc st) as [e ->]. exists e. reflexivity.
  - destruct (c st) as [st1|e]; [apply IH | exists e; reflexivity].
Qed.
Lemma recurse_rejects cs : Exists rejects cs -> rejects (chk_recurse cs).
Proof. intros H st. unfold chk_recurse, Checker.cbind. destruct (run_each_rejects cs H st) as [e ->]. exists e. reflexivity. Qed.

Lemma bind_rejects (x : Checker.cres) f : rejects f -> exists r, Checker.cbind x f = CR r.
Proof. intros H. destruct x as [st1|e]; cbn; [apply H | exists e; reflexivity]. Qed.

Lemma body_rejects k cs : Exists rejects cs -> rejects (chk_body k cs).
Proof.
  intros He st. destruct k; cbn [Checker.chk_body].
  - apply recurse_rejects; assumption.
  - destruct (bstr_eqb _ _); [eexists; reflexivity|]. unfold Checker.cbind at 1.
    destruct (recurse_rejects cs He st) as [e ->]. exists e. reflexivity.
  - apply bind_rejects, recurse_rejects, He.
  - destruct cs as [|l [|body ie]]; try (eexists; reflexivity).
    inversion He as [? ? Hl|? ? He1]; subst.
    { unfold Checker.cbind at 1. destruct (Hl st) as [e ->]. exists e. reflexivity. }
    apply bind_rejects. intros st1.
    inversion He1 as [? ? Hb|? ? Hie]; subst.
    { unfold Checker.cbind at 1. destruct (Hb (push_var st1 {| b_name := var; b_let := false; b_used := false |})) as [e ->]. exists e. reflexivity. }
    apply bind_rejects. intros st2. apply run_each_rejects, Hie.
  - apply bind_rejects, recurse_rejects, He.
  - apply bind_rejects, recurse_rejects, He.
  - eexists; reflexivity.
  - apply recurse_rejects; assumption.
Qed.

(* a let that is the only child of a non-block parent is never used: rejected *)
Lemma let_result name kk st :
  (exists r, chk (RT (KLet name) kk) st = CR r) \/
  (exists st1, chk (RT (KLet name) kk) st = CO (push_var st1 {| b_name := name; b_let := true; b_used := false |})
               /\ length (vars st1) = length (vars st)).
Proof.
  cbn [Checker.chk Checker.chk_body]. destruct (bstr_eqb name s_ij); [left; eexists; reflexivity|].
  destruct (chk_recurse (map chk kk) st) as [st1|e] eqn:E; cbn [Checker.cbind]; [|left; exists e; reflexivity].
  right. exists st1. split; [reflexivity|]. exact (recurse_len _ _ _ (chks_grow kk) E).
Qed.
Lemma lone_let_rejected name kk : rejects (chk (RT KOther [RT (KLet name) kk])).
Proof.
  intros st. pose proof (let_result name kk st) as H. remember (RT (KLet name) kk) as inner eqn:Ei. clear Ei.
  cbn [Checker.chk map Checker.chk_body]. unfold chk_recurse. cbn [run_each].
  destruct H as [[e He]|(st1 & He & Hl)]; rewrite He; cbn [Checker.cbind]; [exists e; reflexivity|].
  cbn [vars push_var set_vars length]. rewrite Hl.
  replace (S (length (vars st)) - length (vars st))%nat with 1%nat by lia.
  cbn [firstn existsb b_let b_used andb negb orb]. eexists; reflexivity.
Qed.

Theorem bad_rejected : forall t, rt_bad t = true -> rejects (chk t).
Proof.
  apply (rt_ind' (fun t => rt_bad t = true -> rejects (chk t))). intros k kids IH Hb.
  cbn [rt_bad] in Hb. apply orb_true_iff in Hb as [Hb|Hb].
  - destruct k; try discriminate. destruct kids as [|[kk0 kk] [|? ?]]; try discriminate;
      destruct kk0; try discriminate. apply lone_let_rejected.
  - cbn [Checker.chk]. apply body_rejects.
    induction IH as [|c r Hc Hr IHr]; cbn [existsb map] in *; [discriminate|].
    apply orb_true_iff in Hb as [Hb|Hb]; [left; apply Hc; exact Hb | right; apply IHr; exact Hb].
Qed.

Corollary accepted_not_bad n : check_template_node templates params n = Accept -> rt_bad (view n) = false.
Proof.
  unfold check_template_node. intros H. destruct (rt_bad (view n)) eqn:E; [|reflexivity].
  destruct (bad_rejected _ E {| vars := []; used_keys := [] |}) as [e He]. rewrite He in H. discriminate.
Qed.
End Chk.

Definition stray (n : node) : bool :=
  match n with NNamespace _ _ _ | NTemplate _ _ _ _ _ | NSoyDoc _ _ | NMsgPlural _ _ _ _ _ => true | _ => false end.

(* file-level tags and {plural} occur only where the grammar puts them: not as an item of a
   block (a plural is an item of a msg or of a plural case), not inside a placeholder *)
Fixpoint no_stray (n : node) {struct n} : bool :=
  match n with
  | NList _ l => forallb (fun x => negb (stray x) && no_stray x) l
  | NMsgPlaceholder _ _ x => negb (stray x) && no_stray x
  | NLog _ b => no_stray b
  | NIf _ conds => forallb no_stray conds
  | NIfCond _ _ b => no_stray b
  | NFor _ _ _ b ie => no_stray b && match ie with Some x => no_stray x | None => true end
  | NSwitch _ _ cases => forallb no_stray cases
  | NSwitchCase _ _ b => no_stray b
  | NCall _ _ _ _ ps => forallb no_stray ps
  | NParamContent _ _ c => no_stray c
  | NLetContent _ _ b => no_stray b
  | NMsg _ _ _ _ body => forallb no_stray body
  | NMsgPlural _ _ _ cases dflt => forallb no_stray cases && forallb no_stray dflt
  | NMsgPluralCase _ _ body => forallb no_stray body
  | NTemplate _ _ b _ _ => no_stray b
  | _ => true
  end.

Fixpoint csz (n : node) {struct n} : nat :=
  let ls := fold_right (fun x a => csz x + a)%nat 0%nat in
  S match n with
    | NList _ l => ls l
    | NMsgPlaceholder _ _ x => csz x
    | NLog _ b => csz b
    | NIf _ conds => ls conds
    | NIfCond _ _ b => csz b
    | NFor _ _ _ b ie => csz b + match ie with Some x => csz x | None => 0 end
    | NSwitch _ _ cases => ls cases
    | NSwitchCase _ _ b => csz b
    | NCall _ _ _ _ ps => ls ps
    | NParamContent _ _ c => csz c
    | NLetContent _ _ b => csz b
    | NMsg _ _ _ _ body => ls body
    | NMsgPlural _ _ _ cases dflt => ls cases + ls dflt
    | NMsgPluralCase _ _ body => ls body
    | NTemplate _ _ b _ _ => csz b
    | _ => 0
    end%nat.
Definition lsz (l : list node) : nat := fold_right (fun x a => csz x + a)%nat 0%nat l.
Lemma lsz_in x l : In x l -> (csz x <= lsz l)%nat.
Proof. induction l as [|y r IH]; cbn [In lsz fold_right]; [tauto|]. intros [->|H]; [lia|]. specialize (IH H). unfold lsz in IH. lia. Qed.

Lemma fb_lift (P Q : node -> bool) l : (forall x, In x l -> P x = true -> Q x = true) -> forallb P l = true -> forallb Q l = true.
Proof. intros H Hp. apply forallb_forall. intros x Hx. apply H; [exact Hx|]. exact (proj1 (forallb_forall _ _) Hp x Hx). Qed.
Lemma fb_in {A} (P : A -> bool) l x : forallb P l = true -> In x l -> P x = true.
Proof. intros H. exact (proj1 (forallb_forall _ _) H x). Qed.

Definition sp_is_let (n : node) : bool := match n with NLetValue _ _ _ | NLetContent _ _ _ => true | _ => false end.
Lemma item_not_let n : sp_is_let n = false -> wf KItem n = wf KCmd n.
Proof. destruct n; try reflexivity; discriminate. Qed.
Lemma lone_kid_not_let n : rt_bad (RT KOther [view n]) = false -> sp_is_let n = false.
Proof. destruct n; try reflexivity; cbn [view rt_bad]; discriminate. Qed.

(* the bridge: parser shape + side condition + accepted by the checker = Spec/Cmd.v's shape *)
Definition bridged (n : node) : Prop :=
  (pwf PBlock n = true -> wf KCmd n = true) /\
  (pwf PItem n = true -> stray n = false -> wf KItem n = true) /\
  (pwf PIfCond n = true -> wf KIfCond n = true) /\
  (pwf PCase n = true -> wf KCase n = true) /\
  (pwf PParam n = true -> wf KParam n = true) /\
  (pwf PMsgItem n = true -> wf KMsgItem n = true) /\
  (pwf PPluralCase n = true -> wf KPluralCase n = true).

Lemma bridged_block n : bridged n -> pwf PBlock n = true -> wf KCmd n = true. Proof. intros H. apply H. Qed.
Lemma bridged_item n : bridged n -> pwf PItem n = true -> stray n = false -> wf KItem n = true. Proof. intros H. apply H. Qed.
Lemma bridged_ifcond n : bridged n -> pwf PIfCond n = true -> wf KIfCond n = true. Proof. intros H. apply H. Qed.
Lemma bridged_case n : bridged n -> pwf PCase n = true -> wf KCase n = true. Proof. intros H. apply H. Qed.
Lemma bridged_param n : bridged n -> pwf PParam n = true -> wf KParam n = true. Proof. intros H. apply H. Qed.
Lemma bridged_msgitem n : bridged n -> pwf PMsgItem n = true -> wf KMsgItem n = true. Proof. intros H. apply H. Qed.
Lemma bridged_pcase n : bridged n -> pwf PPluralCase n = true -> wf KPluralCase n = true. Proof. intros H. apply H. Qed.

Ltac shapes := unfold bridged; repeat split; intros Hp; cbn [pwf] in Hp; try discriminate.

(* the children through which commands nest *)
Definition cmd_kids (n : node) : list node :=
  match n with
  | NList _ l => l
  | NLog _ b => [b]
  | NIf _ cs => cs
  | NIfCond _ _ b => [b]
  | NFor _ _ _ b ie => b :: Compile.olist ie
  | NSwitch _ _ cs => cs
  | NSwitchCase _ _ b => [b]
  | NCall _ _ _ _ ps => ps
  | NParamContent _ _ c => [c]
  | NLetContent _ _ b => [b]
  | NMsg _ _ _ _ body => body
  | NMsgPlaceholder _ _ x => [x]
  | NMsgPlural _ _ _ cases dflt => cases ++ dflt
  | NMsgPluralCase _ _ body => body
  | NTemplate _ _ b _ _ => [b]
  | _ => []
  end.

Lemma lsz_app a c : lsz (a ++ c) = (lsz a + lsz c)%nat.
Proof. unfold lsz. induction a as [|x a IH]; cbn [app fold_right]; [reflexivity | rewrite IH; lia]. Qed.

Lemma csz_kids n : csz n = S (lsz (cmd_kids n)).
Proof.
  destruct n; cbn [csz cmd_kids]; rewrite ?lsz_app; try reflexivity;
    try (destruct ifempty); cbn [Compile.olist lsz fold_right]; lia.
Qed.
Lemma no_stray_kids n : no_stray n = true -> forallb no_stray (cmd_kids n) = true.
Proof.
  destruct n; cbn [no_stray cmd_kids forallb]; rewrite ?forallb_app, ?andb_true_r; auto.
  - apply fb_lift. intros x _ H. apply andb_true_iff in H. apply H.
  - destruct ifempty; cbn [Compile.olist forallb]; rewrite ?andb_true_r; auto.
  - intros H. apply andb_true_iff in H. apply H.
Qed.

(* the bridge, over any predicate [B] that is inherited by the command children and excludes a let as the
   only child of a placeholder *)
Section GBridge.
Variable B : node -> Prop.
Hypothesis HB1 : forall n x, B n -> In x (cmd_kids n) -> B x.
Hypothesis HB2 : forall p nm x, B (NMsgPlaceholder p nm x) -> sp_is_let x = false.

Theorem gbridge h : forall n, (csz n <= h)%nat -> no_stray n = true -> B n -> bridged n.
Proof.
  induction h as [|h IH]; intros n Hh Hs Hb; [rewrite csz_kids in Hh; lia|].
  assert (K : forall x, In x (cmd_kids n) -> bridged x).
  { intros x Hx. apply IH; [|exact (fb_in _ _ _ (no_stray_kids n Hs) Hx) | exact (HB1 n x Hb Hx)].
    pose proof (lsz_in x _ Hx). rewrite csz_kids in Hh. lia. }
  clear IH Hh.
  destruct n; cbn [cmd_kids] in K; cbn [no_stray] in Hs;
    try (shapes; try (intros _); try reflexivity; try exact Hp; fail).
  - shapes. cbn [wf]. revert Hp. apply fb_lift. intros x Hx Hpx.
    pose proof (fb_in _ _ _ Hs Hx) as Hsx. apply andb_true_iff in Hsx as [S1 _]. apply negb_true_iff in S1.
    exact (bridged_item x (K x Hx) Hpx S1).
  - shapes. intros _. apply (bridged_block n), Hp. apply K. left. reflexivity.
  - shapes. intros _. cbn [wf item_kind]. revert Hp. apply fb_lift. intros x Hx. apply bridged_ifcond, K, Hx.
  - shapes. apply andb_true_iff in Hp as [P1 P2]. cbn [wf]. fold (oall (wf KExpr) cond). rewrite P1.
    apply (bridged_block n), P2. apply K. left. reflexivity.
  - shapes. intros _. apply andb_true_iff in Hp as [Hp P3]. apply andb_true_iff in Hp as [P1 P2].
    cbn [wf item_kind]. rewrite P1, (bridged_block n2 (K n2 (or_introl eq_refl)) P2).
    destruct ifempty as [ie|]; [|reflexivity]. apply (bridged_block ie), P3. apply K. right. left. reflexivity.
  - shapes. intros _. apply andb_true_iff in Hp as [P1 P2]. cbn [wf item_kind]. rewrite P1.
    revert P2. apply fb_lift. intros x Hx. apply bridged_case, K, Hx.
  - shapes. apply andb_true_iff in Hp as [P1 P2]. cbn [wf]. rewrite P1.
    apply (bridged_block n), P2. apply K. left. reflexivity.
  - shapes. intros _. apply andb_true_iff in Hp as [P1 P2]. cbn [wf item_kind]. fold (oall (wf KExpr) data). rewrite P1.
    revert P2. apply fb_lift. intros x Hx. apply bridged_param, K, Hx.
  - shapes. apply (bridged_block n), Hp. apply K. left. reflexivity.
  - shapes. intros _. apply (bridged_block n), Hp. apply K. left. reflexivity.
  - shapes. intros _. cbn [wf item_kind]. revert Hp. apply fb_lift. intros x Hx. apply bridged_msgitem, K, Hx.
  - shapes. apply andb_true_iff in Hs as [S1 _]. apply negb_true_iff in S1.
    cbn [wf]. rewrite <- (item_not_let n (HB2 _ _ _ Hb)). apply bridged_item; [apply K; left; reflexivity | exact Hp | exact S1].
  - shapes. apply andb_true_iff in Hp as [Hp P3]. apply andb_true_iff in Hp as [P1 P2].
    cbn [wf]. rewrite P1. apply andb_true_iff. split.
    + revert P2. apply fb_lift. intros x Hx. apply bridged_pcase, K, in_or_app. left. exact Hx.
    + revert P3. apply fb_lift. intros x Hx. apply bridged_msgitem, K, in_or_app. right. exact Hx.
  - shapes. cbn [wf]. revert Hp. apply fb_lift. intros x Hx. apply bridged_msgitem, K, Hx.
Qed.
End GBridge.

(* its instance for Model/Checker.v: the view of the node holds no let as the only child of a non-block parent *)
Lemma bad_kid t x : rt_bad t = false -> In x (rt_kids t) -> rt_bad x = false.
Proof.
  destruct t as [k kids]. cbn [rt_bad rt_kids]. intros H Hx. apply orb_false_iff in H as [_ H].
  destruct (rt_bad x) eqn:E; [|reflexivity]. rewrite <- H. symmetry. apply existsb_exists. exists x. split; assumption.
Qed.

Lemma bad_cmd_kid n x : rt_bad (view n) = false -> In x (cmd_kids n) -> rt_bad (view x) = false.
Proof.
  intros Hb Hx. assert (Hin := in_map view _ _ Hx).
  destruct n; cbn [cmd_kids] in Hx; try contradiction; cbn [cmd_kids map In] in Hin.
  all: try (apply (bad_kid _ _ Hb); cbn [view rt_kids]; rewrite ?in_app_iff; cbn [In]; tauto).
  - destruct ifempty; cbn [Compile.olist map In] in Hin; apply (bad_kid _ _ Hb); cbn [view rt_kids In]; tauto.
  - rewrite map_app, in_app_iff in Hin. destruct Hin as [Hin|Hin].
    + apply (bad_kid _ _ Hb). cbn [view rt_kids In]. rewrite in_app_iff. tauto.
    + apply (bad_kid (RT KOther (map view default))); [|exact Hin].
      apply (bad_kid _ _ Hb). cbn [view rt_kids In]. rewrite in_app_iff. cbn [In]. tauto.
  - apply (bad_kid (RT KOther (map view body))); [|exact Hin]. apply (bad_kid _ _ Hb). left. reflexivity.
Qed.

Theorem bridge h : forall n, (csz n <= h)%nat -> no_stray n = true -> rt_bad (view n) = false -> bridged n.
Proof. exact (gbridge (fun n => rt_bad (view n) = false) bad_cmd_kid (fun p nm x => lone_kid_not_let x) h). Qed.

(* the tree of a file has the parser's shape, and every call in it is resolved against a
   (namespace, aliases) between the empty start state and the final state of the parse *)
Theorem soy_file_shape inlen lexq unq ts n p :
  po_result (soy_file inlen lexq unq ts) = POk n p ->
  pwf PBlock n = true /\ exists hi, Forall (resolved_in ([], []) hi) (calls_of n).
Proof.
  unfold soy_file, parse_file. intros H.
  pose proof (item_list_shape inlen lexq unq parse_expr expr_fuel parse_expr_wf (file_fuel ts) (st (cst_init ts)) u_eof
                (cst_init ts) (nle_refl _)) as P.
  destruct (item_list _ _ _ _ _ _ _ _) as [n0 s| | |]; cbn [po_result] in H; try discriminate.
  injection H as <- _. cbn [stepr post] in P. destruct P as [_ [P1 P2]]. split; [exact P1|].
  exists (st s). apply P2. apply nle_refl.
Qed.

(* once the namespace is set, "between" means: THAT namespace, and aliases between those of the two states *)
Lemma resolved_in_ns lo hi name : fst lo <> [] -> resolved_in lo hi name ->
  exists al written, al_ext (snd lo) al /\ al_ext al (snd hi) /\ written <> [] /\ resolves (fst lo) al written name.
Proof.
  intros Hne (mid & written & [H1 H2] & [_ H3] & Hw & Hr). destruct H1 as [H1|H1]; [contradiction|].
  exists (snd mid), written. destruct lo as [l1 l2], mid as [m1 m2]. cbn [fst snd] in *. subst m1. repeat split; assumption.
Qed.

(* every call below a {template} whose start tag is read under the namespace ns is resolved against ns
   and the aliases in force at the call (those at the start tag, or more) *)
Theorem template_calls_resolved inlen lexq unq fuel token s n s' :
  c_ns s <> [] ->
  parse_template inlen unq (item_list inlen lexq unq parse_expr expr_fuel fuel) fuel token s = COk n s' ->
  Forall (fun name => exists al written, al_ext (c_al s) al /\ al_ext al (c_al s') /\ written <> [] /\
                                         resolves (c_ns s) al written name) (calls_of n).
Proof.
  intros Hne H.
  pose proof (node_template inlen unq (item_list inlen lexq unq parse_expr expr_fuel fuel) fuel
                (fun lo u s0 => item_list_shape inlen lexq unq parse_expr expr_fuel parse_expr_wf fuel lo u s0)
                (st s) token s (nle_refl _)) as P.
  rewrite H in P. cbn [stepr post] in P. destruct P as [_ [_ P]].
  specialize (P (st s') (nle_refl _)). eapply Forall_impl; [|exact P].
  intros name Hn. exact (resolved_in_ns (st s) (st s') name Hne Hn).
Qed.

Definition parsed_file (f : soyfile) : Prop :=
  exists inlen lexq unq ts p p', po_result (soy_file inlen lexq unq ts) = POk (NList p (sf_body f)) p'.

(* the side condition, per file: inside the templates, file-level tags and {plural} stand where the grammar puts them *)
Definition file_grammar (f : soyfile) : bool :=
  forallb (fun x => match x with NTemplate _ _ b _ _ => no_stray b | _ => true end) (sf_body f).

Definition tmpl_ok (n : node) : Prop :=
  match n with
  | NTemplate _ _ (NList _ rest) _ _ => pwf PBlock (NList 0 rest) = true /\ no_stray (NList 0 rest) = true
  | _ => False
  end.

Lemma split_header_suffix nodes : exists pre, nodes = pre ++ snd (split_header nodes).
Proof.
  induction nodes as [|x r IH]; [exists []; reflexivity|].
  destruct x; try (exists []; reflexivity). cbn [split_header]. destruct IH as [pre E].
  destruct (split_header r) as [hs rest]. cbn [snd] in *. eexists (_ :: pre). cbn [app]. rewrite <- E. reflexivity.
Qed.

Lemma forallb_suffix {A} (P : A -> bool) pre l : forallb P (pre ++ l) = true -> forallb P l = true.
Proof. rewrite forallb_app. intros H. apply andb_true_iff in H as [_ H]. exact H. Qed.

Lemma add_templates_ok fname ns : forall body prev acc ts,
  forallb (pwf PItem) body = true ->
  forallb (fun x => match x with NTemplate _ _ b _ _ => no_stray b | _ => true end) body = true ->
  Forall (fun t => tmpl_ok (t_node t)) acc ->
  add_templates fname ns prev body acc = AddOk ts -> Forall (fun t => tmpl_ok (t_node t)) ts.
Proof.
  induction body as [|x r IH]; intros prev acc ts Hp Hg Ha H; cbn [add_templates] in H; [injection H as <-; exact Ha|].
  cbn [forallb] in Hp, Hg. apply andb_true_iff in Hp as [Hpx Hpr]. apply andb_true_iff in Hg as [Hgx Hgr].
  destruct x; try (eapply IH; eassumption).
  cbn [pwf] in Hpx. destruct x; try discriminate.
  destruct (match prev with Some (NSoyDoc _ ps) => soydoc_params ps | _ => Some [] end); [|discriminate].
  destruct (split_header_suffix nodes) as [pre E].
  destruct (split_header nodes) as [hs rest] eqn:Es. cbn [snd] in E.
  destruct (_ && _); [discriminate|]. destruct (existsb _ _); [discriminate|].
  eapply IH; [exact Hpr | exact Hgr | | exact H].
  apply Forall_app. split; [exact Ha|]. constructor; [|constructor]. cbn [t_node tmpl_ok].
  cbn [pwf no_stray] in *. rewrite E in Hpx, Hgx. split; eapply forallb_suffix; eassumption.
Qed.

Lemma add_files_ok : forall fs acc ts,
  (forall f, In f fs -> forallb (pwf PItem) (sf_body f) = true) ->
  (forall f, In f fs -> file_grammar f = true) ->
  Forall (fun t => tmpl_ok (t_node t)) acc ->
  add_files acc fs = AddOk ts -> Forall (fun t => tmpl_ok (t_node t)) ts.
Proof.
  induction fs as [|f r IH]; intros acc ts Hp Hg Ha H; cbn [add_files] in H; [injection H as <-; exact Ha|].
  destruct (add_file acc f) as [acc'|] eqn:E; [|discriminate].
  eapply IH; [intros g Hin; apply Hp; right; exact Hin | intros g Hin; apply Hg; right; exact Hin | | exact H].
  unfold add_file in E. destruct (file_namespace _); [|discriminate].
  eapply add_templates_ok; [apply Hp; left; reflexivity | apply (Hg f); left; reflexivity | exact Ha | exact E].
Qed.

Lemma check_templates_all all : forall l, check_templates all l = Accept ->
  forall t, In t l -> check_template_node all (map fst (t_params t)) (t_node t) = Accept.
Proof.
  induction l as [|t0 r IH]; intros H t Ht; [destruct Ht|]. cbn [check_templates] in H.
  destruct (check_template_node all (map fst (t_params t0)) (t_node t0)) eqn:E; [|discriminate].
  destruct Ht as [<-|Ht]; [exact E | apply IH; assumption].
Qed.

(* FULL statement (false of the faithful model, see compiled_registry_wf_refuted in Properties/C02.v):
     parsed files, add_files [] fs = AddOk ts, compile_check fs = Accept -> wf_registry (registry_of ts fs) = true.
   Proved: the same under [file_grammar] -- the one thing the parser does not enforce. *)
Theorem compiled_registry_wf_shape fs ts :
  (forall f, In f fs -> forallb (pwf PItem) (sf_body f) = true) ->
  (forall f, In f fs -> file_grammar f = true) ->
  add_files [] fs = AddOk ts -> compile_check fs = Accept ->
  Cmd.wf_registry (registry_of ts fs) = true.
Proof.
  intros Hp Hg Hadd Hc. unfold compile_check in Hc. rewrite Hadd in Hc. unfold check_registry in Hc. cbn [r_templates registry_of] in Hc.
  pose proof (add_files_ok fs [] ts Hp Hg (Forall_nil _) Hadd) as Hok.
  unfold Cmd.wf_registry. cbn [r_templates registry_of]. apply forallb_forall. intros t Ht.
  pose proof (check_templates_all ts ts Hc t Ht) as Hacc. apply accepted_not_bad in Hacc.
  pose proof (proj1 (Forall_forall _ _) Hok t Ht) as Htk. cbv beta in Htk.
  destruct (t_node t); cbn [tmpl_ok] in Htk; try contradiction.
  destruct n; try contradiction. destruct Htk as [T1 T2].
  apply (bad_cmd_kid _ (NList p0 nodes)) in Hacc; [|left; reflexivity].
  exact (bridged_block _ (bridge _ _ (le_n _) T2 Hacc) T1).
Qed.

Theorem compiled_registry_wf_parsed fs ts :
  (forall f, In f fs -> parsed_file f) ->
  (forall f, In f fs -> file_grammar f = true) ->
  add_files [] fs = AddOk ts -> compile_check fs = Accept ->
  Cmd.wf_registry (registry_of ts fs) = true.
Proof.
  intros Hp. apply compiled_registry_wf_shape. intros f Hf.
  destruct (Hp f Hf) as (inlen & lexq & unq & toks & p & p' & H).
  exact (proj1 (soy_file_shape _ _ _ _ _ _ H)).
Qed.
