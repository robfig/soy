(* What Num.round53 computes, as a statement about integers: the multiple m * 2^sh of the last place kept
   that is nearest to M, ties to the even m -- IEEE 754 roundTiesToEven at 53 bits of precision (the
   exponent range is checked separately by Num.mk_fl).  [fl_add_r], [fl_sub_r], [fl_mul_r] apply it to
   the exact sum / product, [fl_div_r] to a quotient with a sticky bit, [fl_of_int] to the integer. *)
From Soy Require Import Model.Bytes Model.Num.
From Coq Require Import ZifyBool Lia.
Open Scope Z_scope.

Lemma rs_pos_case a sh hi lo half :
  0 < half -> 2 ^ sh = 2 * half -> a = hi * 2 ^ sh + lo -> 0 <= lo < 2 ^ sh -> 0 <= hi ->
  let hi' := match Z.compare lo half with Gt => hi + 1 | Lt => hi | Eq => if Z.even hi then hi else hi + 1 end in
  2 * Z.abs (a - hi' * 2 ^ sh) <= 2 ^ sh /\
  (2 * Z.abs (a - hi' * 2 ^ sh) = 2 ^ sh -> Z.even hi' = true) /\
  hi <= hi' <= hi + 1.
Proof.
  intros Hh E2 Ea Hlo Hhi. cbv zeta. set (T := 2 ^ sh) in *.
  destruct (Z.compare_spec lo half) as [C|C|C].
  - destruct (Z.even hi) eqn:Ev.
    + split; [lia|]. split; [intros _; exact Ev|lia].
    + split; [lia|]. split; [|lia]. intros _. rewrite Z.even_add, Ev. reflexivity.
  - split; [lia|]. split; [lia|lia].
  - split; [lia|]. split; [lia|lia].
Qed.

Theorem round53_spec (M E : Z) :
  let '(m, e) := round53 M E in
  exists sh, 0 <= sh /\ e = E + sh /\
    2 * Z.abs (M - m * 2 ^ sh) <= 2 ^ sh /\                          (* within half a unit of the last place *)
    (2 * Z.abs (M - m * 2 ^ sh) = 2 ^ sh -> Z.even m = true) /\      (* a tie goes to the even mantissa *)
    Z.abs m <= 2 ^ 53 /\                                              (* 53 bits (2^53 itself after a carry) *)
    (0 < sh -> 2 ^ 52 <= Z.abs m) /\                                  (* and no precision is given away *)
    (sh = 0 -> m = M).                                                (* nothing is rounded that fits *)
Proof.
  unfold round53. cbv zeta. set (a := Z.abs M). set (n := Z.log2 a + 1).
  destruct (Z.leb_spec n 53) as [Hn|Hn].
  - exists 0. rewrite Z.pow_0_r, Z.mul_1_r, Z.sub_diag. cbn [Z.abs]. repeat split; try lia.
    destruct (Z.eq_dec a 0) as [E0|N0]; [unfold a in *; lia|].
    assert (a < 2 ^ 53) by (apply Z.log2_lt_pow2; [unfold a in *; lia|unfold n in Hn; lia]). unfold a in *. lia.
  - set (sh := n - 53). assert (Hsh : 0 < sh) by (unfold sh; lia).
    assert (Ha : 0 < a). { destruct (Z.eq_dec a 0) as [E0|]; [|unfold a in *; lia]. unfold n in Hn. rewrite E0 in Hn. cbn in Hn. lia. }
    pose proof (Z.log2_spec a Ha) as [L1 L2]. replace (Z.succ (Z.log2 a)) with n in L2 by (unfold n; lia). replace (Z.log2 a) with (n - 1) in L1 by (unfold n; lia).
    assert (PT : 0 < 2 ^ sh) by (apply Z.pow_pos_nonneg; lia).
    assert (E2 : 2 ^ sh = 2 * 2 ^ (sh - 1)) by (replace sh with (1 + (sh - 1)) at 1 by lia; rewrite Z.pow_add_r by lia; reflexivity).
    assert (PH : 0 < 2 ^ (sh - 1)) by (apply Z.pow_pos_nonneg; lia).
    pose proof (Z.div_mod a (2 ^ sh) ltac:(lia)) as Hdm. pose proof (Z.mod_pos_bound a (2 ^ sh) PT) as Hlo.
    set (hi := a / 2 ^ sh) in *. set (lo := a mod 2 ^ sh) in *.
    assert (Hhi : 2 ^ 52 <= hi < 2 ^ 53).
    { assert (En1 : 2 ^ (n - 1) = 2 ^ 52 * 2 ^ sh) by (rewrite <- Z.pow_add_r by lia; f_equal; unfold sh; lia).
      assert (En : 2 ^ n = 2 ^ 53 * 2 ^ sh) by (rewrite <- Z.pow_add_r by lia; f_equal; unfold sh; lia).
      split; [apply Z.div_le_lower_bound; [lia|]|apply Z.div_lt_upper_bound; [lia|]]. all: lia. }
    pose proof (rs_pos_case a sh hi lo (2 ^ (sh - 1)) PH E2 ltac:(lia) Hlo ltac:(lia)) as R. cbv zeta in R.
    set (hi' := match lo ?= 2 ^ (sh - 1) with Gt => hi + 1 | Lt => hi | Eq => if Z.even hi then hi else hi + 1 end) in *.
    destruct R as (R1 & R2 & R3).
    exists sh. split; [lia|]. split; [reflexivity|].
    destruct (Z.ltb_spec M 0) as [Hneg|Hpos].
    + assert (EM : M = - a) by (unfold a; lia).
      replace (M - - hi' * 2 ^ sh) with (- (a - hi' * 2 ^ sh)) by (rewrite EM; ring). rewrite Z.abs_opp.
      split; [exact R1|]. split; [intros T; rewrite Z.even_opp; exact (R2 T)|]. rewrite Z.abs_opp. repeat split; lia.
    + assert (EM : M = a) by (unfold a; lia). rewrite EM.
      split; [exact R1|]. split; [exact R2|]. repeat split; lia.
Qed.

(* nearest: no other multiple of the last place kept is closer *)
Corollary round53_nearest (M E : Z) :
  let '(m, e) := round53 M E in
  exists sh, 0 <= sh /\ e = E + sh /\ forall m', Z.abs (M - m * 2 ^ sh) <= Z.abs (M - m' * 2 ^ sh).
Proof.
  pose proof (round53_spec M E) as H. destruct (round53 M E) as [m e].
  destruct H as (sh & H0 & He & Hn & _). exists sh. split; [exact H0|]. split; [exact He|]. intros m'.
  assert (PT : 0 < 2 ^ sh) by (apply Z.pow_pos_nonneg; lia). set (T := 2 ^ sh) in *.
  destruct (Z.eq_dec m m') as [->|N]; [lia|].
  assert (T <= Z.abs ((m - m') * T)) by (rewrite Z.abs_mul; nia).
  replace (M - m' * T) with ((M - m * T) + (m - m') * T) by ring. lia.
Qed.
