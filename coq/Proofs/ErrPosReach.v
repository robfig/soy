(* C19, parse half: composing the per-configuration scanner theorems with the scan that leads to the
   configuration.  [steps k] (Proofs/LexTokens.v) is k iterations of the state machine.

   [reach_run]: a scan that reaches a live configuration (st1, l1) after k steps continues from it --
   the whole run is the run from (st1, l1).  Hence, for ANY file s whose scan reaches the text state
   with the cursor before "plain text }" ([stray_brace_reached]), or the inside of a tag with the
   cursor before "white space, illegal character" ([illegal_char_reached]): the items of the whole
   file are the items sent so far followed by the error item just after the offending character,
   whose line is 1 + the line feeds before that character.

   What these theorems do NOT derive is the hypothesis itself -- that the scan of the FAULTED file
   reaches the configuration the scan of the valid file reaches at the same offset (prefix
   determinism of the scanner: its reads up to a configuration do not go beyond the common prefix,
   up to bounded look-ahead).  That is a property of every state function's look-ahead: Proofs/LexPrefix*.v,
   composed with these theorems in Proofs/ErrPosPrefix.v. *)
From Soy Require Import Model.Bytes Model.Utf8 Model.Outcome Model.Token Model.Lexer Generated.Tables Model.Interp Spec.ErrPos
  Proofs.Utf8Proofs Proofs.LexerPrim Proofs.LexTokens Proofs.ErrTokProofs Proofs.LexErrPos.
From Coq Require Import ZifyBool Lia List.
Import ListNotations.
Open Scope Z_scope.

Section Reach.
Variable ul ud : Z -> bool.
Variable s : bstr.
Notation ilen := (Z.of_nat (length s)).
Notation steps := (steps ul ud s 0).
Notation run := (run ul ud s ilen 0).

Lemma steps_live k st l st1 l1 :
  steps k st l = Ok (st1, l1) -> st1 <> LDone ->
  forall j, (j < k)%nat -> forall stj lj, steps j st l = Ok (stj, lj) -> stj <> LDone.
Proof.
  intros H Hl j Hj stj lj Hs E. subst stj.
  replace k with (j + (k - j))%nat in H by lia.
  rewrite (steps_app ul ud s 0 _ _ _ _ _ _ Hs) in H. rewrite steps_done in H. inversion H. congruence.
Qed.

Theorem reach_run k st l st1 l1 fuel :
  steps k st l = Ok (st1, l1) -> st1 <> LDone -> run (k + fuel) st l = run fuel st1 l1.
Proof. intros H Hl. apply run_steps; [exact H|]. eapply steps_live; eassumption. Qed.

Lemma fault_line l txt c rest msg :
  0 <= l_pos l -> drop (Z.to_nat (l_pos l)) s = txt ++ c :: rest -> c <> 10%N ->
  line_at s (t_pos (err_item (l_pos l + Z.of_nat (length txt) + 1) msg)) = (1 + count_nl (take (Z.to_nat (l_pos l)) s ++ txt))%N.
Proof.
  intros Hp Hd Hnl. pose proof (take_drop (Z.to_nat (l_pos l)) s) as Hs. rewrite Hd in Hs.
  set (pre := take (Z.to_nat (l_pos l)) s ++ txt).
  assert (Es : s = pre ++ c :: rest) by (unfold pre; rewrite <- app_assoc; symmetry; exact Hs).
  assert (Hlen : Z.of_nat (length (take (Z.to_nat (l_pos l)) s)) = l_pos l).
  { pose proof (f_equal (@length _) Hs) as HL. rewrite !app_length in HL. cbn [length] in HL.
    pose proof (drop_length (Z.to_nat (l_pos l)) s) as HD. rewrite Hd, app_length in HD. cbn [length] in HD. lia. }
  replace (t_pos (err_item _ msg)) with (N.of_nat (length pre) + 1)%N
    by (unfold err_item, pre; cbn [t_pos]; rewrite app_length; lia).
  rewrite Es at 1. apply illegal_char_line. exact Hnl.
Qed.

(* a stray closing brace after plain text, from whatever configuration in the text state the scan has reached *)
Theorem stray_brace_reached k l txt rest fuel :
  steps k LText lex_init = Ok (LText, l) -> 0 <= l_pos l ->
  drop (Z.to_nat (l_pos l)) s = txt ++ 125%N :: rest -> Forall plain txt ->
  let e := err_item (l_pos l + Z.of_nat (length txt) + 1) e_close_brace in
  lex_items ul ud (k + S fuel) false s = Ok (rev (l_out l) ++ [e]) /\
  line_at s (t_pos e) = (1 + count_nl (take (Z.to_nat (l_pos l)) s ++ txt))%N.
Proof.
  intros Hk Hp Hd Hpl e. split; [|apply (fault_line l txt 125%N rest); [exact Hp|exact Hd|discriminate]].
  unfold lex_items, lex_run, lex_run_at. cbn [entry_state].
  rewrite (reach_run _ _ _ _ _ (S fuel) Hk ltac:(discriminate)).
  destruct (stray_brace ul ud s 0 ltac:(lia) fuel l txt rest Hpl Hp Hd) as (l' & Hr & Ho).
  rewrite Hr. cbn [bind]. rewrite Ho. cbn [rev]. rewrite Z.add_0_l. reflexivity.
Qed.

(* an illegal character after white space inside a tag, from whatever configuration inside a tag *)
Theorem illegal_char_reached k l ws c rest fuel :
  steps k LText lex_init = Ok (LInsideTag, l) -> 0 <= l_pos l ->
  drop (Z.to_nat (l_pos l)) s = ws ++ c :: rest -> Forall space_byte ws -> (c < 128)%N -> reaches_default (Z.of_N c) = true ->
  c <> 10%N ->
  let e := err_item (l_pos l + Z.of_nat (length ws) + 1) e_bad_char in
  lex_items ul ud (k + (length ws + S fuel)) false s = Ok (rev (l_out l) ++ [e]) /\
  line_at s (t_pos e) = (1 + count_nl (take (Z.to_nat (l_pos l)) s ++ ws))%N.
Proof.
  intros Hk Hp Hd Hws Hc Hr Hnl e. split; [|exact (fault_line l ws c rest _ Hp Hd Hnl)].
  unfold lex_items, lex_run, lex_run_at. cbn [entry_state].
  rewrite (reach_run _ _ _ _ _ (length ws + S fuel) Hk ltac:(discriminate)).
  destruct (illegal_char ul ud s 0 ltac:(lia) ws fuel l c rest Hws Hp Hd Hc Hr) as (l' & Hrun & Ho).
  rewrite Hrun. cbn [bind]. rewrite Ho. cbn [rev]. rewrite Z.add_0_l. reflexivity.
Qed.
End Reach.
