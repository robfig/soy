(* C05, lexer half: the scanner is total and linear.  The per-state progress lemmas
   (LexerStates, LexerLoops, LexerText, LexerHeader, LexerSoyDoc) are assembled into
   [step_ok]; [run_total] is the induction on the potential. *)
From Soy Require Import Model.Bytes Model.Utf8 Model.Outcome Model.Token Generated.Tables Model.Lexer Spec.LexSpec
  Proofs.LexRun Proofs.LexerPrim Proofs.LexerStates Proofs.LexerLoops Proofs.LexerText Proofs.LexerHeader Proofs.LexerSoyDoc.
From Coq Require Import ZifyBool Lia.
Open Scope Z_scope.

Section Init.
Variable inp : bstr.
Notation ilen := (Z.of_nat (length inp)).
Variable base : Z.

Lemma phi_ticks st l : wf inp l -> l_ticks l <= phi inp st l.
Proof. unfold wf, phi. intros H. destruct st; cbn [rank]; lia. Qed.

Lemma phi_pos st l : wf inp l -> st = LDone \/ l_ticks l + 12 <= phi inp st l.
Proof. unfold wf, phi. intros H. destruct st; cbn [rank]; try (right; lia). left; reflexivity. Qed.

Lemma init_inv expr_mode : inv inp base (entry_state expr_mode) lex_init.
Proof.
  unfold inv, wf, lex_init. cbn [l_pos l_start l_out]. repeat split; try lia.
  - destruct expr_mode; constructor.
  - destruct expr_mode; discriminate.
Qed.

Lemma init_phi expr_mode : phi inp (entry_state expr_mode) lex_init <= 40 * ilen + 24.
Proof. destruct expr_mode; unfold phi, lex_init; cbn [entry_state rank l_ticks l_pos]; lia. Qed.

End Init.

(* an EOF or error item is the last item sent *)
Fixpoint final_last (ts : list tok) : Prop :=
  match ts with
  | [] => True
  | t :: r => (is_final (t_typ t) = true -> r = []) /\ final_last r
  end.

(* the claim about a finished scan, on the items in the order they were sent *)
Definition scan_ok (lim : N) (ts : list tok) : Prop :=
  Forall (item_ok lim) ts /\ ends_scan ts /\ final_last ts.

Lemma final_last_plain lim (pre : list tok) it : Forall (plain_ok lim) pre -> final_last (pre ++ [it]).
Proof.
  induction pre as [|a pre IH]; intros H; cbn.
  - split; [reflexivity|exact I].
  - inversion H as [|? ? Ha Hp]; subst. split; [|apply IH; exact Hp].
    destruct Ha as [_ Ha]. rewrite Ha. discriminate.
Qed.

Lemma items_ok_scan lim out : items_ok lim true out -> scan_ok lim (rev out).
Proof.
  unfold items_ok. destruct out as [|it rest]; [contradiction|]. intros (Hi & Hf & Hr). cbn [rev].
  assert (Hrev : Forall (plain_ok lim) (rev rest)).
  { apply Forall_forall. intros x Hx. rewrite Forall_forall in Hr. apply Hr. apply in_rev. exact Hx. }
  split; [|split].
  - apply Forall_app. split; [|constructor; [exact Hi|constructor]].
    eapply Forall_impl; [|exact Hrev]. intros a [Ha _]. exact Ha.
  - exists (rev rest), it. split; [reflexivity|]. unfold is_final in Hf. apply Bool.orb_true_iff in Hf.
    destruct Hf as [Hf|Hf]; apply N.eqb_eq in Hf; auto.
  - apply (final_last_plain lim). exact Hrev.
Qed.

Section Total.
Variable uni_letter uni_digit : Z -> bool.
Hypothesis letter_eof : uni_letter (-1) = false.
Hypothesis digit_eof : uni_digit (-1) = false.
Variable inp : bstr.
Notation ilen := (Z.of_nat (length inp)).
Variable base : Z.
Hypothesis base_nonneg : 0 <= base.
Notation lim := (Z.to_N (base + ilen)).

Lemma step_ok st l : inv inp base st l -> st <> LDone ->
  okp (step uni_letter uni_digit inp ilen base st l) (step_post inp base st l).
Proof.
  intros Hi Hst. eapply okp_weaken; [|intros p; apply (loop_post_step inp base st), Hst].
  destruct st; cbn [step rank]; try congruence.
  - apply lex_text_ok; assumption.
  - apply lex_left_delim_ok; assumption.
  - apply lex_right_delim_ok; assumption.
  - apply lex_right_delim_end_ok; assumption.
  - exact (lex_begin_tag_ok inp base l Hi).
  - apply lex_inside_tag_ok; assumption.
  - apply lex_soydoc_ok; assumption.
  - apply lex_line_comment_ok; assumption.
  - apply lex_block_comment_ok; assumption.
  - apply lex_string_ok; assumption.
  - apply lex_ident_ok; assumption.
  - apply lex_header_param_ok; assumption.
  - apply lex_css_ok; assumption.
  - apply lex_literal_ok; assumption.
  - apply lex_number_ok; assumption.
Qed.

(* the run: from any state satisfying its invariant, a budget of phi - ticks steps suffices; the scan ends
   in the nil state with a well-formed item list whose last item is EOF or an error, and the total work
   stays below phi *)
Lemma run_total : forall fuel st l, inv inp base st l -> phi inp st l - l_ticks l <= Z.of_nat fuel ->
  okp (run uni_letter uni_digit inp ilen base fuel st l)
      (fun l' => items_ok lim true (l_out l') /\ l_ticks l' <= phi inp st l /\ wf inp l').
Proof.
  induction fuel as [|f IH]; intros st l Hi Hf; destruct (lstate_done_dec st) as [->|Hst].
  1, 3: rewrite run_done; destruct Hi as (Hw & Hd & _); split; [exact Hd|split; [unfold phi; lia|exact Hw]].
  - destruct (phi_pos inp st l (proj1 Hi)) as [->|Hp]; [congruence|lia].
  - rewrite (run_S _ _ _ _ _ _ _ _ Hst).
    eapply okp_bind; [apply step_ok; assumption|]. intros [st' l'] (Hi' & Hphi & Ht).
    eapply okp_weaken; [apply IH; [exact Hi'|lia]|].
    intros l'' (Hd & Htk & Hw). split; [exact Hd|split; [lia|exact Hw]].
Qed.

(* whatever the budget: a run that returns has kept the invariant *)
Lemma run_inv : forall fuel st l l', inv inp base st l ->
  run uni_letter uni_digit inp ilen base fuel st l = Ok l' -> items_ok lim true (l_out l').
Proof.
  intros fuel st l l' Hi Hr.
  refine (proj1 (proj2 (run_invariant _ _ _ _ _ (inv inp base) _ fuel st l l' Hr Hi))).
  intros st0 l0 st1 l1 Hst E Hi0. pose proof (step_ok st0 l0 Hi0 Hst) as Hs. rewrite E in Hs. exact (proj1 Hs).
Qed.

End Total.

(* lex_total_linear: for EVERY byte string, in both entry modes (and for the nested scanner of
   parseQuotedExpr at any offset base >= 0), the scanner run with the budget 40 + 40*|s| returns
   normally -- never Crash, Diverge, OutOfFuel or OutOfModel -- having sent a list of items that all lie
   inside the input (positions <= base + |s|; $ident .ident .N items at least one byte long, ?.ident ?.N
   items at least two), with EOF or an error item as the last and only as the last item; the work done
   (calls of next() plus bytes scanned by strings.Index) is at most 40*|s| + 24.  The unicode classes are
   arbitrary predicates that are false of eof. *)
Theorem lex_total_linear (uni_letter uni_digit : Z -> bool) :
  uni_letter (-1) = false -> uni_digit (-1) = false ->
  forall (base : Z), 0 <= base -> forall (expr_mode : bool) (s : bstr),
  exists l, lex_run_at uni_letter uni_digit base (lex_budget s) expr_mode s = Ok l /\
            scan_ok (Z.to_N (base + Z.of_nat (length s))) (rev (l_out l)) /\
            l_ticks l <= 40 * Z.of_nat (length s) + 24.
Proof.
  intros Hl Hd base Hb expr_mode s. unfold lex_run_at.
  pose proof (run_total uni_letter uni_digit Hl Hd s base Hb (lex_budget s) (entry_state expr_mode) lex_init
                (init_inv s base expr_mode)) as H.
  pose proof (init_phi s expr_mode) as Hphi.
  assert (Hf : phi s (entry_state expr_mode) lex_init - l_ticks lex_init <= Z.of_nat (lex_budget s)).
  { unfold lex_budget. cbn [l_ticks lex_init]. lia. }
  specialize (H Hf).
  destruct (run uni_letter uni_digit s (Z.of_nat (length s)) base (lex_budget s) (entry_state expr_mode) lex_init) as [l| | | | |];
    cbn in H; try contradiction.
  exists l. destruct H as (Hdone & Ht & _). split; [reflexivity|]. split; [apply items_ok_scan; exact Hdone|lia].
Qed.

(* the items of ANY run that returns (whatever budget it was given) are well-formed *)
Theorem lex_run_items_ok (uni_letter uni_digit : Z -> bool) :
  uni_letter (-1) = false -> uni_digit (-1) = false ->
  forall (base : Z), 0 <= base -> forall (fuel : nat) (expr_mode : bool) (s : bstr) l,
  lex_run_at uni_letter uni_digit base fuel expr_mode s = Ok l ->
  scan_ok (Z.to_N (base + Z.of_nat (length s))) (rev (l_out l)).
Proof.
  intros Hl Hd base Hb fuel expr_mode s l Hr. apply items_ok_scan.
  exact (run_inv uni_letter uni_digit Hl Hd s base Hb fuel _ _ _ (init_inv s base expr_mode) Hr).
Qed.

(* the same for the item lists of lex / lexExpr (base 0) and of lexExprAt *)
Corollary lex_items_total (uni_letter uni_digit : Z -> bool) :
  uni_letter (-1) = false -> uni_digit (-1) = false ->
  forall (expr_mode : bool) (s : bstr),
  exists ts, lex_items uni_letter uni_digit (lex_budget s) expr_mode s = Ok ts /\ scan_ok (N.of_nat (length s)) ts.
Proof.
  intros Hl Hd expr_mode s. destruct (lex_total_linear _ _ Hl Hd 0 ltac:(lia) expr_mode s) as (l & Hr & He & _).
  exists (rev (l_out l)). unfold lex_items, lex_run. rewrite Hr. cbn. split; [reflexivity|].
  replace (N.of_nat (length s)) with (Z.to_N (0 + Z.of_nat (length s))) by lia. exact He.
Qed.

Corollary lex_items_scan_ok (uni_letter uni_digit : Z -> bool) :
  uni_letter (-1) = false -> uni_digit (-1) = false ->
  forall (fuel : nat) (expr_mode : bool) (s : bstr) ts,
  lex_items uni_letter uni_digit fuel expr_mode s = Ok ts -> scan_ok (N.of_nat (length s)) ts.
Proof.
  intros Hl Hd fuel expr_mode s ts H. unfold lex_items, lex_run in H.
  destruct (lex_run_at uni_letter uni_digit 0 fuel expr_mode s) as [l| | | | |] eqn:E; cbn in H; try discriminate.
  injection H as <-. replace (N.of_nat (length s)) with (Z.to_N (0 + Z.of_nat (length s))) by lia.
  exact (lex_run_items_ok _ _ Hl Hd 0 ltac:(lia) _ _ _ _ E).
Qed.

(* every item of a scan lies inside the input (the form C19 uses) *)
Corollary lex_items_pos_le (uni_letter uni_digit : Z -> bool) :
  uni_letter (-1) = false -> uni_digit (-1) = false ->
  forall (fuel : nat) (expr_mode : bool) (s : bstr) ts,
  lex_items uni_letter uni_digit fuel expr_mode s = Ok ts ->
  Forall (fun t => (t_pos t <= N.of_nat (length s))%N) ts.
Proof.
  intros Hl Hd fuel expr_mode s ts H. destruct (lex_items_scan_ok _ _ Hl Hd _ _ _ _ H) as (Hall & _).
  eapply Forall_impl; [|exact Hall]. intros t [Hp _]. exact Hp.
Qed.

Corollary lex_items_at_scan_ok (uni_letter uni_digit : Z -> bool) :
  uni_letter (-1) = false -> uni_digit (-1) = false ->
  forall (base : Z), 0 <= base -> forall (fuel : nat) (s : bstr) ts,
  lex_items_at uni_letter uni_digit base fuel s = Ok ts -> scan_ok (Z.to_N (base + Z.of_nat (length s))) ts.
Proof.
  intros Hl Hd base Hb fuel s ts H. unfold lex_items_at in H.
  destruct (lex_run_at uni_letter uni_digit base fuel true s) as [l| | | | |] eqn:E; cbn in H; try discriminate.
  injection H as <-. exact (lex_run_items_ok _ _ Hl Hd base Hb _ _ _ _ E).
Qed.

Lemma tables_eof : is_letter_tbl (-1) = false /\ is_digit_tbl (-1) = false.
Proof. vm_compute. split; reflexivity. Qed.

Theorem lex_tbl_total_linear : forall expr_mode, scanner_total_linear (lex_items_tbl expr_mode) 40.
Proof.
  intros expr_mode s. destruct tables_eof as [Hl Hd].
  destruct (lex_total_linear _ _ Hl Hd 0 ltac:(lia) expr_mode s) as (l & Hr & (_ & He & _) & Ht).
  exists (rev (l_out l)), (l_ticks l). unfold lex_items_tbl, lex_run.
  rewrite Hr. cbn. split; [reflexivity|]. split; [exact He|lia].
Qed.
