(* C02, call names, part 1 (parser): the name a {call} node carries is the
   written name resolved -- as Spec/CallNames.v defines -- against the namespace
   and the aliases in force at the call; {alias} binds the last segment; a
   {template} node carries namespace + .name. *)
From Soy Require Import Model.Bytes Model.Values Model.Ast Model.Token Generated.Tables Model.Parser
  Spec.CallNames Proofs.CompilePermProofs.
Open Scope N_scope.

(* resolve_name computes the relation of the Spec, which is a function *)

Lemma index_of_split c s i : index_of c s = Some i ->
  ~ In c (take i s) /\ drop i s = c :: drop (S i) s /\ s = take i s ++ c :: drop (S i) s.
Proof.
  revert i. induction s as [|x r IH]; intros i H; cbn [index_of] in H; [discriminate|].
  destruct (x =? c) eqn:E.
  - injection H as <-. apply N.eqb_eq in E. subst x. cbn. repeat split; auto.
  - destruct (index_of c r) as [j|] eqn:Ej; [|discriminate]. injection H as <-.
    destruct (IH j eq_refl) as (H1 & H2 & H3). apply N.eqb_neq in E. cbn [take drop]. repeat split.
    + intros [Hx|Hx]; [congruence | exact (H1 Hx)].
    + exact H2.
    + cbn [app]. f_equal. exact H3.
Qed.

Lemma index_of_none c s : index_of c s = None -> ~ In c s.
Proof.
  induction s as [|x r IH]; cbn [index_of]; intros H; [intros []|].
  destruct (x =? c) eqn:E; [discriminate|]. destruct (index_of c r); [discriminate|].
  apply N.eqb_neq in E. intros [Hx|Hx]; [congruence | exact (IH eq_refl Hx)].
Qed.

Lemma resolve_name_nodot s x r : x <> 46 ->
  resolve_name s (x :: r) =
  match index_of 46 (x :: r) with
  | Some d => match assoc_s (take d (x :: r)) (c_al s) with
              | Some al => al ++ drop d (x :: r) | None => x :: r end
  | None => x :: r end.
Proof.
  intros Hx. unfold resolve_name. destruct x as [|p]; [reflexivity|].
  do 6 (destruct p as [p|p|]; try reflexivity). exfalso; apply Hx; reflexivity.
Qed.

Theorem resolve_name_spec s name : resolves (c_ns s) (c_al s) name (resolve_name s name).
Proof.
  destruct name as [|x r]; [apply RPlain; intros []|].
  destruct (N.eq_dec x 46) as [->|Hx].
  { apply RRelative. }
  rewrite (resolve_name_nodot s x r Hx).
  destruct (index_of 46 (x :: r)) as [d|] eqn:Ei.
  - destruct (index_of_split _ _ _ Ei) as (Hk & Hd & Hs).
    assert (Hne : take d (x :: r) <> []).
    { destruct d; [|cbn; discriminate]. cbn in Hd. congruence. }
    destruct (assoc_s (take d (x :: r)) (c_al s)) as [al|] eqn:Ea.
    + rewrite Hd. rewrite Hs at 1. apply RAliased; assumption.
    + rewrite Hs at 1 2. apply RQualified; assumption.
  - apply RPlain. exact (index_of_none _ _ Ei).
Qed.

Lemma split_at_dot k k' r r' : no_dot k -> no_dot k' -> k ++ dot :: r = k' ++ dot :: r' -> k = k' /\ r = r'.
Proof.
  revert k'. induction k as [|a k IH]; intros [|a' k'] Hk Hk' H; cbn [app] in H.
  - injection H as ->. split; reflexivity.
  - injection H as <- _. exfalso. apply Hk'. left. reflexivity.
  - injection H as -> _. exfalso. apply Hk. left. reflexivity.
  - injection H as -> H. destruct (IH k') as [-> ->]; auto.
    + intros Hi. apply Hk. right. exact Hi.
    + intros Hi. apply Hk'. right. exact Hi.
Qed.

Lemma resolves_inv ns al name r : resolves ns al name r ->
  (exists x, name = dot :: x /\ r = ns ++ name) \/
  (exists k rest, name = k ++ dot :: rest /\ k <> [] /\ no_dot k /\
                  r = match assoc_s k al with Some full => full ++ dot :: rest | None => name end) \/
  (no_dot name /\ r = name).
Proof.
  intros H. destruct H as [x|k rest full Hne Hk Ha|k rest Hne Hk Ha|nm Hn].
  - left. exists x. split; reflexivity.
  - right; left. exists k, rest. rewrite Ha. repeat split; assumption.
  - right; left. exists k, rest. rewrite Ha. repeat split; assumption.
  - right; right. split; [assumption | reflexivity].
Qed.

Theorem resolves_functional ns al name r1 r2 : resolves ns al name r1 -> resolves ns al name r2 -> r1 = r2.
Proof.
  assert (Hin : forall k rest, In dot (k ++ dot :: rest)) by (intros; apply in_or_app; right; left; reflexivity).
  assert (Hrel : forall x k rest, dot :: x = k ++ dot :: rest -> k <> [] -> no_dot k -> False).
  { intros x k rest He Hne Hk. destruct k as [|a k]; [contradiction|]. injection He as <- _. apply Hk. left. reflexivity. }
  intros H1 H2. apply resolves_inv in H1. apply resolves_inv in H2.
  destruct H1 as [(x & E1 & ->)|[(k & rest & E1 & Hne & Hk & ->)|(Hn & ->)]];
  destruct H2 as [(x' & E2 & ->)|[(k' & rest' & E2 & Hne' & Hk' & ->)|(Hn' & ->)]]; try reflexivity.
  - exfalso. rewrite E1 in E2. exact (Hrel _ _ _ E2 Hne' Hk').
  - exfalso. apply Hn'. rewrite E1. left. reflexivity.
  - exfalso. rewrite E2 in E1. exact (Hrel _ _ _ E1 Hne Hk).
  - rewrite E1 in E2. destruct (split_at_dot _ _ _ _ Hk Hk' E2) as [-> ->]. reflexivity.
  - exfalso. apply Hn'. rewrite E1. apply Hin.
  - exfalso. apply Hn. rewrite E2. left. reflexivity.
  - exfalso. apply Hn. rewrite E2. apply Hin.
Qed.

(* so: whatever the Spec says a written name denotes is what resolve_name returns *)
Corollary resolve_name_complete s name full : resolves (c_ns s) (c_al s) name full -> resolve_name s name = full.
Proof. intros H. exact (resolves_functional _ _ _ _ _ (resolve_name_spec s name) H). Qed.

(* the token-level procedures leave tree.namespace and tree.aliases alone *)

Definition same_names (s s' : cst) : Prop := c_ns s' = c_ns s /\ c_al s' = c_al s.
Definition keeps {A} (s : cst) (r : cres A) : Prop :=
  match r with COk _ s' => same_names s s' | _ => True end.

Lemma same_names_refl s : same_names s s. Proof. split; reflexivity. Qed.
Lemma same_names_trans a c d : same_names a c -> same_names c d -> same_names a d.
Proof. intros [H1 H2] [H3 H4]. split; congruence. Qed.

Lemma keeps_trans {A} s s1 (r : cres A) : same_names s s1 -> keeps s1 r -> keeps s r.
Proof. intros H. destruct r; cbn; auto. apply same_names_trans, H. Qed.

Lemma keeps_bind {A B} s (x : cres A) (f : A -> cst -> cres B) :
  keeps s x -> (forall a s1, keeps s1 (f a s1)) -> keeps s (cbind x f).
Proof. destruct x as [a s1| | |]; cbn [cbind keeps]; auto. intros H K. exact (keeps_trans s s1 _ H (K a s1)). Qed.

Lemma keeps_ok {A} s (r : cres A) a s' : keeps s r -> r = COk a s' -> same_names s s'.
Proof. intros H ->. exact H. Qed.

Lemma cbind_ok {A B} (x : cres A) (f : A -> cst -> cres B) b s' :
  cbind x f = COk b s' -> exists a s1, x = COk a s1 /\ f a s1 = COk b s'.
Proof. destruct x as [a s1| | |]; cbn [cbind]; try discriminate. intros H. exists a, s1. split; [reflexivity | exact H]. Qed.

Section Frames.
Variable inlen : N.
Variable unq : bstr -> option bstr.

Lemma keeps_error_at {A} t c s : keeps s (@c_error_at inlen A t c s).
Proof. unfold c_error_at. destruct (t_pos t <=? inlen); exact I. Qed.
Lemma keeps_errorf {A} c s : keeps s (@c_errorf inlen A c s).
Proof. unfold c_errorf. destruct (3 <=? p_peek (c_p s))%nat; [exact I | apply keeps_error_at]. Qed.
Lemma keeps_unexp {A} t c s : keeps s (@c_unexp inlen A t c s).
Proof. unfold c_unexp. destruct (tis t pit_Error); apply keeps_error_at. Qed.
Lemma error_at_not_ok {A} t c s (a : A) s' : @c_error_at inlen A t c s <> COk a s'.
Proof. unfold c_error_at. destruct (t_pos t <=? inlen); discriminate. Qed.
Lemma errorf_not_ok {A} c s (a : A) s' : @c_errorf inlen A c s <> COk a s'.
Proof. unfold c_errorf. destruct (3 <=? p_peek (c_p s))%nat; [discriminate | apply error_at_not_ok]. Qed.
Lemma unexp_not_ok {A} t c s (a : A) s' : @c_unexp inlen A t c s <> COk a s'.
Proof. unfold c_unexp. destruct (tis t pit_Error); apply error_at_not_ok. Qed.

Lemma keeps_next s : keeps s (c_next s).
Proof.
  unfold c_next. destruct (3 <=? p_peek (c_p s))%nat; [exact I|].
  destruct (p_next (c_p s)) as [t p']. (split; reflexivity).
Qed.
Lemma keeps_peek s : keeps s (c_peek s).
Proof.
  unfold c_peek. destruct (3 <=? p_peek (c_p s))%nat; [exact I|].
  destruct (p_peek_tok (c_p s)) as [t p']. (split; reflexivity).
Qed.
Lemma keeps_expect typ ctx s : keeps s (c_expect inlen typ ctx s).
Proof.
  unfold c_expect. apply keeps_bind; [apply keeps_next|]. intros t s1.
  destruct (tis t typ); [(split; reflexivity) | apply keeps_unexp].
Qed.
Lemma keeps_tail1 v s : keeps s (tail1 v s).
Proof. destruct v; [exact I | (split; reflexivity)]. Qed.

Lemma keeps_attrs f : forall allowed acc s, keeps s (attrs_loop inlen unq f allowed acc s).
Proof.
  induction f as [|f IH]; intros allowed acc s; [exact I|]. cbn [attrs_loop].
  apply keeps_bind; [apply keeps_next|]. intros t s1.
  destruct (tis t pit_Ident).
  - destruct (negb _); [apply keeps_unexp|].
    apply keeps_bind; [apply keeps_expect|]. intros _ s2.
    apply keeps_bind; [apply keeps_expect|]. intros av s3.
    destruct (unq (t_val av)); [apply IH | apply keeps_errorf].
  - destruct (_ || _); [(split; reflexivity) | apply keeps_unexp].
Qed.

Lemma keeps_call_name_loop f : forall name s, keeps s (call_name_loop f name s).
Proof.
  induction f as [|f IH]; intros name s; [exact I|]. cbn [call_name_loop].
  apply keeps_bind; [apply keeps_next|]. intros t s1.
  destruct (tis t pit_DotIdent); [apply IH | (split; reflexivity)].
Qed.
Lemma keeps_call_name lf s : keeps s (call_name lf s).
Proof.
  unfold call_name. apply keeps_bind; [apply keeps_next|]. intros t s1.
  destruct (tis t pit_DotIdent); [(split; reflexivity)|].
  destruct (tis t pit_Ident); [|(split; reflexivity)].
  apply keeps_bind; [apply keeps_next|]. intros t2 s2.
  destruct (tis t2 pit_DotIdent); [apply keeps_call_name_loop | (split; reflexivity)].
Qed.

(* {call}: the node's name is the written name, resolved where the call stands *)
Section Call.
Variable lexq : bstr -> list tok.
Variable pexpr : nat -> N -> pst -> presult node.
Variable efuel : list tok -> nat.
Variable pe : N -> cst -> cres node.
Variable w : list N -> cst -> cres node.
Variable lf : nat.

(* the name as written: before the attributes (.x, a.b.x) or in name="..." *)
Definition written_name (name0 : bstr) (attrs : list (bstr * bstr)) : bstr :=
  match name0 with [] => attr_or_empty k_name attrs | _ => name0 end.

Theorem parse_call_resolves token s n s' :
  parse_call inlen lexq unq pexpr efuel pe w lf token s = COk n s' ->
  exists name0 s1 attrs s2 full alldata dat params,
    call_name lf s = COk name0 s1 /\
    attrs_loop inlen unq lf [k_name; k_data] [] s1 = COk attrs s2 /\
    written_name name0 attrs <> [] /\
    resolves (c_ns s) (c_al s) (written_name name0 attrs) full /\
    n = NCall (t_pos token) full alldata dat params.
Proof.
  unfold parse_call. intros H.
  apply cbind_ok in H as (name0 & s1 & E1 & H).
  apply cbind_ok in H as (attrs & s2 & E2 & H).
  fold (written_name name0 attrs) in H.
  assert (Hs : same_names s s2).
  { exact (same_names_trans _ _ _ (keeps_ok _ _ _ _ (keeps_call_name lf s) E1) (keeps_ok _ _ _ _ (keeps_attrs lf _ _ s1) E2)). }
  destruct (written_name name0 attrs) as [|c0 cr] eqn:Ew.
  { exfalso. exact (errorf_not_ok _ _ _ _ H). }
  rewrite <- Ew in *.
  exists name0, s1, attrs, s2, (resolve_name s2 (written_name name0 attrs)).
  assert (Hres : resolves (c_ns s) (c_al s) (written_name name0 attrs) (resolve_name s2 (written_name name0 attrs))).
  { destruct Hs as [<- <-]. apply resolve_name_spec. }
  apply cbind_ok in H as ([alldata dat] & s3 & _ & H).
  apply cbind_ok in H as (tk & s4 & _ & H). cbn [fst snd] in H.
  destruct (tis tk pit_RightDelimEnd).
  - injection H as <- _. exists alldata, dat, []. repeat split; try assumption. rewrite Ew. discriminate.
  - destruct (tis tk pit_RightDelim).
    + apply cbind_ok in H as (body & s5 & _ & H).
      apply cbind_ok in H as (? & s6 & _ & H).
      apply cbind_ok in H as (? & s7 & _ & H).
      apply cbind_ok in H as (? & s8 & _ & H).
      injection H as <- _. exists alldata, dat, body. repeat split; try assumption. rewrite Ew. discriminate.
    + exfalso. exact (unexp_not_ok _ _ _ _ _ H).
Qed.
End Call.

(* {alias a.b.c}: binds c to a.b.c, in front of the aliases so far *)
Lemma alias_key_cons first v segs : alias_key first (v :: segs) = alias_key (tl v) segs.
Proof.
  unfold alias_key. cbn [rev]. destruct (rev segs) as [|a l]; reflexivity.
Qed.

Lemma alias_loop_binds f : forall name last s s',
  alias_loop inlen f name last s = COk tt s' ->
  exists segs, c_ns s' = c_ns s /\ c_al s' = (alias_key last segs, name ++ concat segs) :: c_al s.
Proof.
  induction f as [|f IH]; intros name last s s' H; [discriminate|]. cbn [alias_loop] in H.
  apply cbind_ok in H as (nx & s1 & E1 & H).
  destruct (keeps_ok _ _ _ _ (keeps_next s) E1) as [Kn Ka].
  destruct (tis nx pit_DotIdent).
  - apply cbind_ok in H as (seg & s2 & E2 & H).
    destruct (t_val nx) as [|c0 v] eqn:Ev; [discriminate E2|]. cbn [tail1] in E2. injection E2 as <- <-.
    destruct (IH _ _ _ _ H) as (segs & Hn & Ha).
    exists ((c0 :: v) :: segs). split; [congruence|].
    rewrite alias_key_cons. cbn [tl concat]. rewrite Ha, Ka, <- app_assoc. reflexivity.
  - destruct (tis nx pit_RightDelim).
    + injection H as <-. exists []. cbn [add_alias c_ns c_al alias_key rev concat]. rewrite app_nil_r, Kn, Ka. split; reflexivity.
    + exfalso. exact (unexp_not_ok _ _ _ _ _ H).
Qed.

Theorem parse_alias_binds f s s' :
  parse_alias inlen f s = COk tt s' ->
  exists first segs, c_ns s' = c_ns s /\ c_al s' = (alias_key first segs, alias_target first segs) :: c_al s.
Proof.
  unfold parse_alias. intros H. apply cbind_ok in H as (id & s1 & E1 & H).
  destruct (keeps_ok _ _ _ _ (keeps_expect pit_Ident x_alias s) E1) as [Kn Ka].
  destruct (alias_loop_binds _ _ _ _ _ H) as (segs & Hn & Ha).
  exists (t_val id), segs. unfold alias_target. split; [rewrite Hn; exact Kn | rewrite Ha, Ka; reflexivity].
Qed.

(* {template .x}: the node is named namespace + .x (the namespace in force at the end tag) *)
Theorem parse_template_name w lf token s n s' :
  parse_template inlen unq w lf token s = COk n s' ->
  exists id body ae priv, n = NTemplate (t_pos token) (declared_name (c_ns s') (t_val id)) body ae priv.
Proof.
  unfold parse_template. intros H.
  apply cbind_ok in H as (id & s1 & _ & H).
  apply cbind_ok in H as (attrs & s2 & _ & H).
  apply cbind_ok in H as (ae & s3 & _ & H).
  apply cbind_ok in H as (priv & s4 & _ & H).
  apply cbind_ok in H as (? & s5 & _ & H).
  apply cbind_ok in H as (body & s6 & _ & H).
  apply cbind_ok in H as (? & s7 & E7 & H).
  destruct (keeps_ok _ _ _ _ (keeps_expect pit_RightDelim x_template s6) E7) as [Kn _].
  injection H as <- <-. exists id, body, ae, priv. unfold declared_name. rewrite Kn. reflexivity.
Qed.
End Frames.
