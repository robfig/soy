(* C15, scanner half, top level: the items lex() sends for a file that is one stretch of template text
   without braces, in the Spec's terms ([pieces]: the text cut at its comments), and the clause
   "http://x is not a comment". *)
From Soy Require Import Model.Bytes Model.Utf8 Model.Outcome Model.Token Generated.Tables Model.Lexer Spec.Text
  Proofs.LexerPrim Proofs.LexerStates Proofs.LexerProofs Proofs.LexTokens Proofs.LexPrintTop Proofs.LexBodyText Proofs.LexBodyMix.
From Coq Require Import ZifyBool Lia.
Open Scope Z_scope.

(* the item list of a text cut into the pieces [x1; ...; xn] by n-1 comments: for each piece its text item
   (none when the piece is empty or white space with a line break; before a "//" comment the white-space
   byte in front of the comment belongs to neither item), then the comment item; EOF at the end *)
Inductive shape : list bstr -> list tok -> Prop :=
| shape_last x txt e : is_text_of x txt -> t_typ e = itemEOF -> shape [x] (txt ++ [e])
| shape_more x x' txt c rest items :
    is_text_of x' txt -> (x = x' \/ exists b, ws b = true /\ x = x' ++ [b]) -> t_typ c = itemComment ->
    shape rest items -> shape (x :: rest) (txt ++ c :: items).

Lemma lex_run_at_file uni_letter uni_digit fuel s :
  lex_run_at uni_letter uni_digit 0 fuel false s = run uni_letter uni_digit s (Z.of_nat (length s)) 0 fuel LText lex_init.
Proof. reflexivity. Qed.

Lemma span_init s : span s lex_init [] s.
Proof. unfold span, lex_init. cbn [l_start l_pos length]. repeat split; lia. Qed.

(* lex(name, s) sends the items of a run of the state machine from lexText that ends in the nil state *)
Lemma lex_file_items_steps (uni_letter uni_digit : Z -> bool) : uni_letter (-1) = false -> uni_digit (-1) = false ->
  forall s k l' items, steps uni_letter uni_digit s 0 k LText lex_init = Ok (LDone, l') -> l_out l' = rev items ++ l_out lex_init ->
  lex_items uni_letter uni_digit (lex_budget s) false s = Ok items.
Proof.
  intros Hl Hd s k l' items Hst Ho. rewrite (lex_items_steps uni_letter uni_digit false s k l' Hl Hd Hst), Ho.
  cbn [lex_init l_out]. rewrite app_nil_r, rev_involutive. reflexivity.
Qed.

(* lex(name, T): the whole input is one stretch of text *)
Theorem lex_body_items (uni_letter uni_digit : Z -> bool) :
  uni_letter (-1) = false -> uni_digit (-1) = false ->
  forall T pcs, plain T -> pieces MText true [] T = Some pcs ->
  exists items, lex_items uni_letter uni_digit (lex_budget T) false T = Ok items /\ shape pcs items.
Proof.
  intros Hl Hd T pcs Hpl Hpc.
  assert (Hs0 : span T lex_init [] (T ++ [])) by (rewrite app_nil_r; apply span_init).
  destruct (lex_stretch_gen uni_letter uni_digit T [] (or_introl eq_refl)
              (fun pcs its => forall e, t_typ e = itemEOF -> shape pcs (its ++ [e]))) with (pcs := pcs) (T := T) (l := lex_init)
    as (k & l' & its & st' & Hst & Hsh & _ & [(_ & -> & e & He & Ho)|(Hne & _)]);
    [| |exact Hs0|exact Hpl|exact (cut_at_nil _ _ _ _ _ Hpc)| |congruence].
  - intros x txt Htx e He. apply shape_last; assumption.
  - intros x x' txt c rest items Htx Hx Hc Hsh e He. rewrite <- app_assoc. exact (shape_more _ _ _ _ _ _ Htx Hx Hc (Hsh e He)).
  - exists (its ++ [e]). split; [|exact (Hsh e He)].
    apply (lex_file_items_steps uni_letter uni_digit Hl Hd T k l'); [exact Hst|]. rewrite Ho, rev_app_distr. reflexivity.
Qed.
