(* C07, last clause: static scoping (the Spec of Spec/Wf.v, hence the checker) is
   sound for the renderer's scope stack (Model/Interp.v): rendering a template of
   a well-formed bundle with all its declared params supplied never misses a
   scope lookup -- provided every call passes every param its callee declares
   ([calls_total]; an omitted optional param or the map behind data="$e" cannot
   be known statically) and {let}s occur where the parser puts them ([shaped]).

   Method.  [keeps P m Q]: started in a state whose scope satisfies [P], the
   computation [m] never bumps the unbound-lookup counter, whatever its outcome,
   and when it returns normally its scope is a frame-wise extension ([sc_ext]:
   same frames, same entered flags, more keys) of the initial one and
   satisfies [Q].  [good ps G L s]: the scope binds the params ps, the
   variables G, the loop counters of the loops L, and its data="all" part
   binds ps.  The walker is treated in open-recursion style: [walk_body_ok]
   proves the specification of [walk_body cf w] from that of [w], for any set [qs] of params
   known to be bound (here all of them; none in Proofs/CheckerExcuseProofs.v); induction on
   the fuel closes. *)
From Soy Require Import Model.Bytes Model.Num Model.Values Model.Outcome Model.Ast Model.Escape Model.Directives
  Model.Print Generated.Tables Model.Interp Model.RefView Model.Checker Spec.Wf
  Proofs.ValueProofs Proofs.ConvertProofs Proofs.InterpLogic Proofs.CheckerProofs.
Open Scope N_scope.

Definition bound (s : scope) (k : bstr) : Prop := sc_lookup s k <> None.
Definition fdom (f : frame) (k : bstr) : Prop := assoc_s k (f_vars f) <> None.

Lemma bound_cons f s k : bound (f :: s) k <-> fdom f k \/ bound s k.
Proof.
  unfold bound, fdom. cbn [sc_lookup]. destruct (assoc_s k (f_vars f)); split; intros H.
  - left. discriminate.
  - discriminate.
  - right. exact H.
  - destruct H as [H|H]; [congruence | exact H].
Qed.

Inductive sc_ext : scope -> scope -> Prop :=
| ext_nil : sc_ext [] []
| ext_cons f f' s s' :
    (forall k, fdom f k -> fdom f' k) -> f_entered f = f_entered f' -> sc_ext s s' -> sc_ext (f :: s) (f' :: s').

Lemma sc_ext_refl s : sc_ext s s.
Proof. induction s; constructor; auto. Qed.

Lemma sc_ext_trans a c d : sc_ext a c -> sc_ext c d -> sc_ext a d.
Proof.
  intros H. revert d. induction H as [|f f' s s' Hd1 He1 Hs IH]; intros d Hd; inversion Hd; subst; constructor.
  - intros k Hk. auto.
  - congruence.
  - apply IH. assumption.
Qed.

Lemma sc_ext_bound s s' k : sc_ext s s' -> bound s k -> bound s' k.
Proof.
  induction 1 as [|f f' s s' Hd He Hs IH]; intros Hb; [exact Hb|].
  apply bound_cons in Hb. apply bound_cons. destruct Hb; [left; auto | right; auto].
Qed.

Lemma sc_ext_alldata s s' sA : sc_ext s s' -> sc_alldata s = Some sA ->
  exists sA', sc_alldata s' = Some sA' /\ sc_ext sA sA'.
Proof.
  induction 1 as [|f f' s s' Hd He Hs IH]; intros Ha; [discriminate|].
  cbn [sc_alldata] in *. rewrite <- He. destruct (f_entered f) eqn:Hf.
  - injection Ha as <-. eexists. split; [reflexivity|]. constructor; [assumption | congruence | assumption].
  - apply IH. exact Ha.
Qed.

Lemma sc_ext_nonempty s s' : sc_ext s s' -> s <> [] -> s' <> [].
Proof. destruct 1; congruence. Qed.

Lemma fdom_set f k v k' :
  fdom {| f_vars := map_set (f_vars f) k v; f_entered := f_entered f; f_origin := f_origin f |} k'
  <-> k' = k \/ fdom f k'.
Proof.
  unfold fdom. cbn [f_vars]. destruct (bstr_eqb_spec k' k) as [->|Hne].
  - rewrite assoc_s_map_set_same. split; [auto | discriminate].
  - rewrite assoc_s_map_set_other by (destruct (bstr_eqb_spec k' k); congruence). tauto.
Qed.

Lemma sc_set_ext s k v : sc_ext s (sc_set s k v).
Proof.
  destruct s as [|f r]; [constructor|]. cbn [sc_set]. constructor; [|reflexivity|apply sc_ext_refl].
  intros k' H. apply fdom_set. right. exact H.
Qed.

Lemma sc_set_bound s k v : s <> [] -> bound (sc_set s k v) k.
Proof.
  destruct s as [|f r]; [congruence|]. intros _. cbn [sc_set]. apply bound_cons. left. apply fdom_set. left. reflexivity.
Qed.

Lemma sc_set_nonempty s k v : s <> [] -> sc_set s k v <> [].
Proof. destruct s; [congruence|]. cbn. discriminate. Qed.

Lemma bound_push s k : bound (sc_push s) k <-> bound s k.
Proof. unfold sc_push. rewrite bound_cons. unfold fdom. cbn. intuition congruence. Qed.

Definition idx_names (L : list bstr) : list bstr := flat_map (fun x => [x ++ s_index; x ++ s_lastindex]) L.

Definition good (ps G L : list bstr) (s : scope) : Prop :=
  (forall k, In k ps \/ In k G \/ In k (idx_names L) -> bound s k)
  /\ exists sA, sc_alldata s = Some sA /\ forall k, In k ps -> bound sA k.

Lemma good_ext ps G L s s' : good ps G L s -> sc_ext s s' -> good ps G L s'.
Proof.
  intros [Hb (sA & Ha & HA)] He. split.
  - intros k Hk. eapply sc_ext_bound; eauto.
  - destruct (sc_ext_alldata _ _ _ He Ha) as (sA' & Ha' & He'). exists sA'. split; [exact Ha'|].
    intros k Hk. eapply sc_ext_bound; eauto.
Qed.

Lemma good_push ps G L s : good ps G L s -> good ps G L (sc_push s).
Proof.
  intros [Hb (sA & Ha & HA)]. split.
  - intros k Hk. apply bound_push. auto.
  - exists sA. split; [exact Ha | exact HA].
Qed.

Lemma good_more ps G L G' L' s :
  good ps G L s -> (forall k, In k G' \/ In k (idx_names L') -> bound s k) -> good ps G' L' s.
Proof.
  intros [Hb HA] H. split; [|exact HA]. intros k [Hk|Hk]; [apply Hb; auto | apply H; exact Hk].
Qed.

Lemma good_let ps G L s x : good ps G L s -> bound s x -> good ps (x :: G) L s.
Proof.
  intros Hg Hx. eapply good_more; [exact Hg|]. intros k [[<-|Hk]|Hk]; [exact Hx | |]; apply (proj1 Hg); auto.
Qed.

Definition keeps {A} (P : scope -> Prop) (m : M A) (Q : A -> scope -> Prop) : Prop :=
  forall st r st', P (ctx st) -> m st = (r, st') ->
    unbound st' = unbound st /\ (forall v, r = Ok v -> sc_ext (ctx st) (ctx st') /\ Q v (ctx st')).

Definition ext_closed (P : scope -> Prop) : Prop := forall s s', P s -> sc_ext s s' -> P s'.
Definition anyQ {A} : A -> scope -> Prop := fun _ _ => True.

Lemma good_closed ps G L : ext_closed (good ps G L).
Proof. intros s s' H He. eapply good_ext; eauto. Qed.

Lemma and_closed (P Q : scope -> Prop) : ext_closed P -> ext_closed Q -> ext_closed (fun s => P s /\ Q s).
Proof. intros HP HQ s s' [H1 H2] He. split; eauto. Qed.

Lemma bound_closed k : ext_closed (fun s => bound s k).
Proof. intros s s' H He. eapply sc_ext_bound; eauto. Qed.

Lemma nonempty_closed : ext_closed (fun s => s <> []).
Proof. intros s s' H He. eapply sc_ext_nonempty; eauto. Qed.

Lemma keeps_weaken {A} (P P' : scope -> Prop) (m : M A) (Q Q' : A -> scope -> Prop) :
  keeps P m Q -> (forall s, P' s -> P s) -> (forall v s, Q v s -> Q' v s) -> keeps P' m Q'.
Proof.
  intros H HP HQ st r st' Hp Hr. destruct (H st r st' (HP _ Hp) Hr) as [Hu Hok]. split; [exact Hu|].
  intros v Hv. destruct (Hok v Hv). split; auto.
Qed.

Lemma keeps_pre {A} (P P' : scope -> Prop) (m : M A) Q : keeps P m Q -> (forall s, P' s -> P s) -> keeps P' m Q.
Proof. intros H HP. eapply keeps_weaken; eauto. Qed.

Lemma keeps_any {A} (P : scope -> Prop) (m : M A) Q : keeps P m Q -> keeps P m anyQ.
Proof. intros H. eapply keeps_weaken; eauto. intros; exact I. Qed.

Lemma keeps_ext {A} (P : scope -> Prop) (m m' : M A) Q : (forall st, m st = m' st) -> keeps P m Q -> keeps P m' Q.
Proof. intros He H st r st' Hp Hr. rewrite <- He in Hr. eapply H; eauto. Qed.

Lemma keeps_ret {A} (P : scope -> Prop) (x : A) (Q : A -> scope -> Prop) : (forall s, P s -> Q x s) -> keeps P (ret x) Q.
Proof.
  intros HQ st r st' Hp Hr. inversion Hr; subst. split; [reflexivity|]. intros v Hv. inversion Hv; subst.
  split; [apply sc_ext_refl | auto].
Qed.

Lemma keeps_ret_any {A} (P : scope -> Prop) (x : A) : keeps P (ret x) anyQ.
Proof. apply keeps_ret. intros; exact I. Qed.

Lemma keeps_fail {A} (P : scope -> Prop) e (Q : A -> scope -> Prop) : keeps P (@fail A e) Q.
Proof. intros st r st' Hp Hr. inversion Hr; subst. split; [reflexivity|]. intros v Hv. discriminate. Qed.

Lemma keeps_get_ctx (P : scope -> Prop) : keeps P get (fun st0 s => ctx st0 = s).
Proof.
  intros st r st' Hp Hr. inversion Hr; subst. split; [reflexivity|]. intros v Hv. inversion Hv; subst.
  split; [apply sc_ext_refl | reflexivity].
Qed.

Lemma keeps_frame {A} (P : scope -> Prop) (m : M A) :
  (forall st r st', m st = (r, st') -> ctx st' = ctx st /\ unbound st' = unbound st) -> keeps P m anyQ.
Proof.
  intros Hm st r st' Hp Hr. destruct (Hm _ _ _ Hr) as [Hc Hu]. split; [exact Hu|].
  intros v Hv. rewrite Hc. split; [apply sc_ext_refl | exact I].
Qed.

Lemma keeps_lift {A} (P : scope -> Prop) (o : outcome A) : keeps P (lift o) anyQ.
Proof. apply keeps_frame. intros st r st' Hr. inversion Hr; subst. split; reflexivity. Qed.

Lemma keeps_get (P : scope -> Prop) : keeps P get anyQ.
Proof. eapply keeps_any. apply keeps_get_ctx. Qed.

Lemma keeps_modify (P : scope -> Prop) f : (forall st, ctx (f st) = ctx st /\ unbound (f st) = unbound st) -> keeps P (modify f) anyQ.
Proof. intros Hf. apply keeps_frame. intros st r st' Hr. inversion Hr; subst. apply Hf. Qed.

Lemma keeps_bind {A B} (P : scope -> Prop) (m : M A) (f : A -> M B) Q1 Q2 :
  ext_closed P -> keeps P m Q1 -> (forall x, keeps (fun s => P s /\ Q1 x s) (f x) Q2) -> keeps P (mbind m f) Q2.
Proof.
  intros Hcl Hm Hf st r st2 Hp Hr.
  destruct (mbind_inv _ _ _ _ _ Hr) as [(x & st1 & H1 & H2) | (e & H1 & ->)].
  - destruct (Hm _ _ _ Hp H1) as [Hu1 Hok1]. destruct (Hok1 x eq_refl) as [He1 Hq1].
    destruct (Hf x st1 r st2 (conj (Hcl _ _ Hp He1) Hq1) H2) as [Hu2 Hok2]. split; [congruence|].
    intros v Hv. destruct (Hok2 v Hv) as [He2 Hq2]. split; [eapply sc_ext_trans; eauto | exact Hq2].
  - destruct (Hm _ _ _ Hp H1) as [Hu1 _]. split; [exact Hu1|]. intros v Hv. exfalso. eapply of_fault_not_ok; eauto.
Qed.

Lemma keeps_bind0 {A B} (P : scope -> Prop) (m : M A) (f : A -> M B) Q1 Q2 :
  ext_closed P -> keeps P m Q1 -> (forall x, keeps P (f x) Q2) -> keeps P (mbind m f) Q2.
Proof.
  intros Hcl Hm Hf. eapply keeps_bind; [exact Hcl | exact Hm |]. intros x. eapply keeps_pre; [apply Hf|]. tauto.
Qed.

Lemma keeps_write (P : scope -> Prop) wd : keeps P (write wd) anyQ.
Proof.
  apply keeps_frame. intros st r st'. unfold write. destruct (bufs st) as [|buf rest].
  - destruct (calls_left st) as [[|n]|]; destruct (bytes_left st) as [k|];
      try (destruct (N.of_nat (length wd) <=? k)); intros H; inversion H; subst; split; reflexivity.
  - intros H; inversion H; subst; split; reflexivity.
Qed.

Lemma keeps_write_all (P : scope -> Prop) ws : ext_closed P -> keeps P (write_all ws) anyQ.
Proof.
  intros Hcl. induction ws as [|x r IH]; cbn [write_all]; [apply keeps_ret_any|].
  eapply keeps_bind0; [exact Hcl | apply keeps_write | intros _; exact IH].
Qed.

Lemma keeps_set (P : scope -> Prop) k v : keeps P (m_set k v) (fun _ s => bound s k /\ s <> []).
Proof.
  intros st r st' Hp Hr. rewrite m_set_eq in Hr. destruct (ctx st) as [|f rest] eqn:Hc.
  - inversion Hr; subst. split; [reflexivity|]. intros v0 Hv. discriminate.
  - inversion Hr; subst. split; [destruct (f_origin f); reflexivity|]. intros v0 _.
    rewrite ctx_set_ctx. split; [apply (sc_set_ext (f :: rest) k v)|].
    split; [apply (sc_set_bound (f :: rest) k v) | apply (sc_set_nonempty (f :: rest) k v)]; discriminate.
Qed.

Lemma keeps_lookup (P : scope -> Prop) k : (forall s, P s -> bound s k) -> keeps P (m_lookup k) anyQ.
Proof.
  intros Hb st r st' Hp Hr. rewrite m_lookup_eq in Hr. specialize (Hb _ Hp). unfold bound in Hb.
  destruct (sc_lookup (ctx st) k); [|congruence]. inversion Hr; subst. split; [reflexivity|].
  intros v0 _. split; [apply sc_ext_refl | exact I].
Qed.

Lemma keeps_fresh_list (P : scope -> Prop) l : keeps P (fresh_list l) anyQ.
Proof. apply keeps_frame. intros st r st' Hr. rewrite fresh_list_eq in Hr. destruct l; inversion Hr; subst; split; reflexivity. Qed.
Lemma keeps_fresh_list_or_nil (P : scope -> Prop) l : keeps P (fresh_list_or_nil l) anyQ.
Proof. apply keeps_frame. intros st r st' Hr. rewrite fresh_list_or_nil_eq in Hr. destruct l; inversion Hr; subst; split; reflexivity. Qed.
Lemma keeps_fresh_map (P : scope -> Prop) m : keeps P (fresh_map m) anyQ.
Proof. apply keeps_frame. intros st r st' Hr. inversion Hr; subst. split; reflexivity. Qed.

Lemma keeps_scoped (P P' : scope -> Prop) (m : M unit) Q :
  (forall s, P s -> P' (sc_push s)) -> keeps P' m Q ->
  keeps P (_ <-- m_push ;;; _ <-- m ;;; _ <-- m_pop ;;; ret VUndef) anyQ.
Proof.
  intros Hpush Hm st r st' Hp Hr. rewrite scoped_eq in Hr.
  destruct (m (pushed st)) as [r1 st2] eqn:Hrun. cbn [fst snd] in Hr.
  destruct (Hm (pushed st) r1 st2 (Hpush _ Hp) Hrun) as [Hu Hok]. cbn in Hu.
  destruct (classify r1) as [x|e] eqn:Hcl; inversion Hr; subst.
  - split; [exact Hu|]. intros v _. apply classify_ok in Hcl. destruct (Hok x Hcl) as [He _].
    unfold pushed in He. rewrite ctx_set_ctx in He. unfold sc_push in He. inversion He; subst.
    unfold popped. rewrite ctx_set_ctx. match goal with H : _ = ctx st2 |- _ => rewrite <- H end. cbn [sc_pop tl].
    split; [assumption | exact I].
  - split; [exact Hu|]. intros v Hv. exfalso. eapply of_fault_not_ok; eauto.
Qed.

(* a call: the caller's scope is back afterwards, on every outcome *)
Lemma keeps_enter (P Pc : scope -> Prop) (w : node -> M value) callee cd Q :
  Pc (sc_enter cd) -> keeps Pc (w (t_node callee)) Q -> keeps P (call_enter w callee cd) anyQ.
Proof.
  intros Hpc Hw st r st' Hp Hr. rewrite call_enter_eq in Hr. cbn zeta in Hr.
  destruct (w (t_node callee) (entered st callee cd)) as [r1 st2] eqn:Hrun. cbn [fst snd] in Hr.
  destruct (Hw (entered st callee cd) r1 st2 Hpc Hrun) as [Hu _]. cbn in Hu.
  inversion Hr; subst. split; [exact Hu|]. intros v _. rewrite ctx_left. split; [apply sc_ext_refl | exact I].
Qed.

(* the static side: what well-formedness gives for the children of a node *)

Lemma find_template_In ts name t : find_template ts name = Some t -> In t ts.
Proof.
  induction ts as [|x r IH]; cbn [find_template]; [discriminate|].
  destruct (bstr_eqb (t_name x) name); intros H; [injection H as <-; left; reflexivity | right; auto].
Qed.

Lemma Forall_map_view (P : rt -> Prop) ns : Forall P (map view ns) <-> Forall (fun n => P (view n)) ns.
Proof. apply Forall_map. Qed.

Lemma maplit_forall (P : rt -> Prop) (items : list (bstr * node)) :
  Forall P (map (fun kv => match kv with (_, e) => view e end) items) -> Forall (fun kv => P (view (snd kv))) items.
Proof.
  induction items as [|[k e] r IH]; intros H; [constructor|]. cbn [map] in H. inversion H; subst.
  constructor; [assumption | apply IH; assumption].
Qed.

Lemma loop_names_fn name :
  fn_is name n_index || fn_is name n_isFirst || fn_is name n_isLast = contains loop_func_names name.
Proof.
  unfold fn_is, loop_func_names. cbn [contains]. rewrite orb_false_r, orb_assoc.
  rewrite (bstr_eqb_sym name n_index), (bstr_eqb_sym name n_isFirst), (bstr_eqb_sym name n_isLast). reflexivity.
Qed.

Lemma idx_in x L : In x L -> In (x ++ s_index) (idx_names L) /\ In (x ++ s_lastindex) (idx_names L).
Proof. intros H. unfold idx_names. split; apply in_flat_map; exists x; (split; [exact H|]); cbn; auto. Qed.

Lemma bound_ne_closed k : ext_closed (fun s => bound s k /\ s <> []).
Proof. apply and_closed; [apply bound_closed | apply nonempty_closed]. Qed.

Lemma good_enter ps cd : cd <> [] -> (forall k, In k ps -> bound cd k) -> good ps [] [] (sc_enter cd).
Proof.
  destruct cd as [|f r]; [congruence|]. intros _ Hb. cbn [sc_enter].
  assert (Hsame : forall k, bound (f :: r) k -> bound ({| f_vars := f_vars f; f_entered := true; f_origin := f_origin f |} :: r) k).
  { intros k Hk. apply bound_cons in Hk. apply bound_cons. exact Hk. }
  split.
  - intros k [Hk|[[]|[]]]. apply bound_push. auto.
  - eexists. split; [reflexivity|]. intros k Hk. auto.
Qed.

Lemma keeps_pure {A} (P : scope -> Prop) (C : Prop) (m : M A) Q :
  (C -> keeps P m Q) -> keeps (fun s => P s /\ C) m Q.
Proof. intros H st r st' [Hp Hc] Hr. eapply H; eauto. Qed.

(* a further static condition that the children of a node inherit ([calls_total_rt], or none) *)
Definition hereditary (X : rt -> bool) : Prop := forall k kids, X (RT k kids) = true -> forallb X kids = true.

Lemma true_hereditary : hereditary (fun _ => true).
Proof. intros k kids _. apply forallb_forall. reflexivity. Qed.

Lemma calls_total_hereditary ts ps : hereditary (calls_total_rt ts ps).
Proof. intros k kids H. cbn [calls_total_rt] in H. apply andb_true_iff in H as [_ H]. exact H. Qed.

(* The walker under the static scoping of the Spec, for any walker [w] that meets the
   specification on the children: [ps] are the declared params of the template being executed
   (those [wf] admits as free names), [qs] the params the scope is known to bind; the head lookup
   of a data reference is the one place where the difference shows, so its success is a
   precondition ([ref_bound]); a {call} is stated for the callee's walker [wc] separately. *)
Section Link.
Variable cf : cfg.
Let T := r_templates (c_reg cf).
Variable X : rt -> bool.
Hypothesis HX : hereditary X.
Variable ps : list bstr.

Definition rt_ok (G L : list bstr) (t : rt) : Prop :=
  wf T ps t G L = true /\ shaped t = true /\ X t = true.

Fixpoint seq_ok (G L : list bstr) (ks : list rt) : Prop :=
  match ks with
  | [] => True
  | c :: r => rt_ok G L c /\ seq_ok (match rt_kind c with KLet x => x :: G | _ => G end) L r
  end.

Lemma wf_seq_no_lets ks G L : no_lets ks = true ->
  wf_seq ks (map (wf T ps) ks) G L = forallb (fun c => wf T ps c G L) ks.
Proof.
  induction ks as [|c r IH]; intros H; [reflexivity|]. apply no_lets_cons in H as [Hc Hr].
  cbn [wf_seq map forallb]. rewrite <- (IH Hr). destruct (rt_kind c); cbn in Hc; try discriminate; reflexivity.
Qed.

Lemma rt_ok_parts G L k kids :
  rt_ok G L (RT k kids) ->
  wf_body T ps k kids (map (wf T ps) kids) G L = true
  /\ (is_block_kind k = true \/ no_lets kids = true)
  /\ Forall (fun c => shaped c = true /\ X c = true) kids.
Proof.
  intros (Hw & Hs & Hc). split; [exact Hw|].
  cbn [shaped] in Hs. apply andb_true_iff in Hs as [Hs Hsk]. apply andb_true_iff in Hs as [Hs _].
  apply HX in Hc. split.
  - apply orb_true_iff in Hs. exact Hs.
  - apply Forall_forall. intros c Hin. rewrite forallb_forall in Hsk, Hc. split; auto.
Qed.

Lemma forall_ok G L kids :
  forallb (fun c => wf T ps c G L) kids = true ->
  Forall (fun c => shaped c = true /\ X c = true) kids ->
  Forall (rt_ok G L) kids.
Proof.
  intros Hw Hf. apply Forall_forall. intros c Hin. rewrite forallb_forall in Hw. rewrite Forall_forall in Hf.
  destruct (Hf c Hin). split; [auto | split; assumption].
Qed.

(* a parent that is neither a block nor a loop: its children are judged in the parent's environment *)
Lemma rt_ok_kids G L k kids :
  rt_ok G L (RT k kids) -> is_block_kind k = false -> (forall x, k <> KFor x) ->
  Forall (rt_ok G L) kids.
Proof.
  intros H Hb Hf. destruct (rt_ok_parts _ _ _ _ H) as (Hw & [Hbl|Hnl] & Hk); [congruence|].
  apply forall_ok; [|exact Hk]. rewrite <- (wf_seq_no_lets kids G L Hnl).
  destruct k; cbn [wf_body] in Hw; try discriminate; try (apply andb_true_iff in Hw as [_ Hw]); try exact Hw.
  exfalso. eapply Hf. reflexivity.
Qed.

Lemma rt_ok_block G L kids : rt_ok G L (RT KBlock kids) -> seq_ok G L kids.
Proof.
  intros H. destruct (rt_ok_parts _ _ _ _ H) as (Hw & _ & Hk). cbn [wf_body] in Hw. clear H.
  revert G Hw. induction kids as [|c r IH]; intros G Hw; [exact I|].
  inversion Hk as [|? ? [Hs Hc] Hr]; subst. cbn [wf_seq map] in Hw. apply andb_true_iff in Hw as [Hwc Hw].
  cbn [seq_ok]. split; [split; [exact Hwc | split; assumption]|].
  destruct (rt_kind c); try (apply IH; assumption).
  apply andb_true_iff in Hw as [_ Hw]. apply IH; assumption.
Qed.

Lemma rt_ok_for G L x kids :
  rt_ok G L (RT (KFor x) kids) ->
  exists l body ie, kids = l :: body :: ie /\ rt_ok G L l /\ rt_ok (x :: G) (x :: L) body /\ Forall (rt_ok G L) ie.
Proof.
  intros H. destruct (rt_ok_parts _ _ _ _ H) as (Hw & _ & Hk). cbn [wf_body] in Hw.
  destruct kids as [|l [|body ie]]; cbn [map] in Hw; try discriminate.
  exists l, body, ie. split; [reflexivity|].
  apply andb_true_iff in Hw as [Hw Hie]. apply andb_true_iff in Hw as [Hl Hb].
  inversion Hk as [|? ? [Hsl Hcl] Hk1]; subst. inversion Hk1 as [|? ? [Hsb Hcb] Hk2]; subst.
  split; [split; [exact Hl | split; assumption]|]. split; [split; [exact Hb | split; assumption]|].
  apply forall_ok; [|exact Hk2]. rewrite forallb_forall in Hie |- *.
  intros c Hc. apply (Hie (wf T ps c)), in_map, Hc.
Qed.

Lemma rt_ok_kid G L k c : rt_ok G L (RT k [c]) -> is_block_kind k = false -> (forall x, k <> KFor x) -> rt_ok G L c.
Proof. intros H Hb Hf. apply rt_ok_kids in H; [|exact Hb | exact Hf]. inversion H; assumption. Qed.

Definition post (n : node) : value -> scope -> Prop :=
  fun _ s => match rt_kind (view n) with KLet x => bound s x | _ => True end.

Definition w_ok (qs : list bstr) (w : node -> M value) : Prop :=
  forall G L n, rt_ok G L (view n) -> keeps (good qs G L) (w n) (post n).

Section Body.
Variable qs : list bstr.
Variable w : node -> M value.
Hypothesis Hw : w_ok qs w.

(* [kb x]: the bind rule [keeps_bind0] -- first goal: the first half, then the continuation on [x].
   [kmod]: a [modify] that leaves scope and counter alone ([keeps_modify]). *)
Ltac kb x := eapply keeps_bind0; [apply good_closed | | intros x].
Ltac kmod := apply keeps_modify; intros; split; reflexivity.

Lemma w_any G L n : rt_ok G L (view n) -> keeps (good qs G L) (w n) anyQ.
Proof. intros H. eapply keeps_any. apply Hw. exact H. Qed.

Lemma eval_ok G L e : rt_ok G L (view e) -> keeps (good qs G L) (eval w e) anyQ.
Proof.
  intros H. unfold eval. kb st0; [apply keeps_get|]. kb v; [apply w_any; exact H|]. kb u; [kmod|]. apply keeps_ret_any.
Qed.

Lemma evaldef_ok G L e : rt_ok G L (view e) -> keeps (good qs G L) (evaldef w e) anyQ.
Proof. intros H. unfold evaldef. kb v; [apply eval_ok; exact H|]. destruct v; first [apply keeps_fail | apply keeps_ret_any]. Qed.

Lemma eval_list_ok G L es : Forall (fun e => rt_ok G L (view e)) es -> keeps (good qs G L) (eval_list w es) anyQ.
Proof.
  induction 1 as [|e r He Hr IH]; cbn [eval_list]; [apply keeps_ret_any|].
  kb v; [apply eval_ok; exact He|]. kb vs; [exact IH|]. apply keeps_ret_any.
Qed.

Lemma walk_list_ok L ns : forall G, seq_ok G L (map view ns) -> keeps (good qs G L) (walk_list w ns) anyQ.
Proof.
  induction ns as [|x r IH]; intros G H; cbn [walk_list]; [apply keeps_ret_any|].
  cbn [map seq_ok] in H. destruct H as [Hx Hr].
  eapply keeps_bind; [apply good_closed | apply Hw; exact Hx |]. intros v0.
  eapply keeps_pre; [apply IH; exact Hr|]. intros s [Hg Hp]. unfold post in Hp.
  destruct (rt_kind (view x)); try exact Hg. apply good_let; assumption.
Qed.

Lemma render_block_ok G L body : rt_ok G L (view body) -> keeps (good qs G L) (render_block w body) anyQ.
Proof.
  intros H. unfold render_block. kb u; [kmod|]. kb v; [apply w_any; exact H|]. kb st1; [apply keeps_get|].
  destruct (bufs st1); [apply keeps_fail|]. kb u2; [kmod|]. apply keeps_ret_any.
Qed.

Lemma maplit_items_ok G L l :
  Forall (fun kv => rt_ok G L (view (snd kv))) l -> keeps (good qs G L) (maplit_items w l) anyQ.
Proof.
  induction 1 as [|[k e] r He Hr IH]; cbn [maplit_items]; [apply keeps_ret_any|].
  kb v; [apply eval_ok; exact He|]. kb m; [exact IH|]. apply keeps_ret_any.
Qed.

(* [kauto tac]: closes [keeps] goals made of ret / fail / lift leaves under if / match / pair-let, with [tac] for the rest *)
Ltac kauto tac :=
  repeat first
    [ apply keeps_ret_any | apply keeps_fail | apply keeps_lift | tac
    | match goal with
      | |- keeps _ (if ?c then _ else _) _ => destruct c
      | |- keeps _ (match ?x with _ => _ end) _ => destruct x
      | |- keeps _ (let '(_, _) := ?p in _) _ => destruct p
      end ].

Lemma loop_func_ok G L name args :
  (forall p key acc rest, args = NDataRef p key acc :: rest -> In key L) ->
  keeps (good qs G L) (loop_func name args) anyQ.
Proof.
  intros H. unfold loop_func. destruct args as [|a rest]; [apply keeps_fail|].
  destruct a; try apply keeps_fail. destruct (idx_in _ _ (H _ _ _ _ eq_refl)) as [Hi Hl].
  kb ix; [apply keeps_lookup; intros s Hs; apply (proj1 Hs); auto|].
  destruct (fn_is name n_index); [apply keeps_ret_any|]. destruct ix; try apply keeps_fail.
  destruct (fn_is name n_isFirst); [apply keeps_ret_any|].
  kb li; [apply keeps_lookup; intros s Hs; apply (proj1 Hs); auto|].
  destruct li; first [apply keeps_fail | apply keeps_ret_any].
Qed.

Lemma call_func_ok G L name args :
  Forall (fun e => rt_ok G L (view e)) args -> keeps (good qs G L) (call_func w name args) anyQ.
Proof.
  intros H. unfold call_func. destruct (func_arities name); [|apply keeps_fail].
  destruct (negb (mem (N.of_nat (length args)) l)); [apply keeps_fail|].
  kb vs; [apply eval_list_ok; exact H|]. kb r; [apply keeps_lift|].
  destruct r; [apply keeps_ret_any | apply keeps_fresh_list_or_nil | apply keeps_fresh_map].
Qed.

Lemma dataref_access_ok G L acc :
  Forall (fun a => rt_ok G L (view a)) acc -> forall ref, keeps (good qs G L) (dataref_access w acc ref) anyQ.
Proof.
  induction 1 as [|a r Ha Hr IH]; intros ref; cbn [dataref_access]; [apply keeps_ret_any|].
  kb ik.
  - destruct a; try apply keeps_fail; try apply keeps_ret_any.
    kb kv; [apply eval_ok; eapply rt_ok_kid; [exact Ha | reflexivity | discriminate]|].
    destruct kv; try apply keeps_ret_any; (kb s0; [apply keeps_lift | apply keeps_ret_any]).
  - kauto ltac:(apply IH).
Qed.

(* [kids H]: from [rt_ok] of a node that is neither a block nor a loop to [Forall rt_ok] of its children ([rt_ok_kids]) *)
Ltac kids H := cbn [view] in H; apply rt_ok_kids in H; [|reflexivity|discriminate].

Lemma print_dirs_ok G L l :
  Forall (fun d => rt_ok G L (view d)) l -> forall v, keeps (good qs G L) (print_dirs cf w l v) anyQ.
Proof.
  induction 1 as [|d r Hd Hr IH]; intros v; cbn [print_dirs]; [apply keeps_ret_any|].
  destruct d; try apply keeps_fail.
  destruct (lookup_directive name) as [[arglens ?]|]; [|apply keeps_fail].
  destruct (negb (check_num_args arglens (length args))); [apply keeps_fail|].
  kids Hd. apply Forall_map_view in Hd.
  kb vs; [apply eval_list_ok; exact Hd|]. kb s; [apply keeps_lift|]. kb ws; [apply keeps_lift|].
  kb rest; [apply IH|]. apply keeps_ret_any.
Qed.

Lemma if_conds_ok G L cs :
  Forall (fun c => rt_ok G L (view c)) cs -> keeps (good qs G L) (if_conds w cs) anyQ.
Proof.
  induction 1 as [|c r Hc Hr IH]; cbn [if_conds]; [apply keeps_ret_any|].
  destruct c; try apply keeps_fail. kids Hc.
  destruct cond as [c0|]; cbn [app] in Hc.
  - inversion Hc as [|? ? H1 H2]; subst. inversion H2 as [|? ? H3 _]; subst.
    kb v; [apply eval_ok; exact H1|]. destruct (truthy v); [|exact IH].
    kb u; [apply w_any; exact H3|]. apply keeps_ret_any.
  - inversion Hc as [|? ? H1 _]; subst. kb u; [apply w_any; exact H1|]. apply keeps_ret_any.
Qed.

Lemma for_items_ok G L var body :
  rt_ok (var :: G) (var :: L) (view body) ->
  forall items i, keeps (fun s => good qs G L s /\ bound s (var ++ s_lastindex)) (for_items w var body i items) anyQ.
Proof.
  intros Hb. induction items as [|x r IH]; intros i; cbn [for_items]; [apply keeps_ret_any|].
  assert (Hcl : ext_closed (fun s => good qs G L s /\ bound s (var ++ s_lastindex)))
    by (apply and_closed; [apply good_closed | apply bound_closed]).
  eapply keeps_bind; [exact Hcl | apply keeps_set |]. intros u1.
  eapply keeps_bind; [apply and_closed; [exact Hcl | apply bound_ne_closed] | apply keeps_set |]. intros u2.
  eapply keeps_bind; [apply and_closed; [apply and_closed; [exact Hcl | apply bound_ne_closed] | apply bound_ne_closed] | |].
  - eapply keeps_pre; [apply Hw; exact Hb|]. intros s [[[Hg Hl] [Hv _]] [Hi _]].
    eapply good_more; [exact Hg|]. intros k [[<-|Hk]|Hk]; [exact Hv | apply (proj1 Hg); auto |].
    cbn [idx_names flat_map app In] in Hk. destruct Hk as [<-|[<-|Hk]]; [exact Hi | exact Hl | apply (proj1 Hg); auto].
  - intros v. eapply keeps_pre; [apply IH|]. tauto.
Qed.

Lemma case_hit_ok G L sv vs :
  Forall (fun e => rt_ok G L (view e)) vs -> keeps (good qs G L) (case_hit w sv vs) anyQ.
Proof.
  induction 1 as [|x r Hx Hr IH]; cbn [case_hit]; [apply keeps_ret_any|].
  kb cv; [apply eval_ok; exact Hx|]. destruct (equals sv cv); [apply keeps_ret_any | exact IH].
Qed.

Lemma switch_cases_ok G L sv cs :
  Forall (fun c => rt_ok G L (view c)) cs -> keeps (good qs G L) (switch_cases w sv cs) anyQ.
Proof.
  induction 1 as [|c r Hc Hr IH]; cbn [switch_cases]; [apply keeps_ret_any|].
  destruct c; try apply keeps_fail. kids Hc.
  inversion Hc as [|? ? Hbody Hvals]; subst. apply Forall_map_view in Hvals.
  kb hit; [apply case_hit_ok; exact Hvals|].
  destruct (hit || _); [|exact IH]. kb u; [apply w_any; exact Hbody|]. apply keeps_ret_any.
Qed.

(* call params: evaluated in the caller's scope, set on the callee's *)
Definition params_post (cd : scope) (ps : list node) : scope -> scope -> Prop :=
  fun cd' _ => cd <> [] ->
    cd' <> [] /\ (forall k, bound cd k -> bound cd' k)
    /\ (forall k, In (Some k) (map param_key ps) -> bound cd' k).

Lemma params_step cd k x r cd' (n : node) :
  params_post (sc_set cd k x) r cd' [] -> param_key n = Some k ->
  params_post cd (n :: r) cd' [].
Proof.
  intros H Hn Hne. destruct (H (sc_set_nonempty _ k x Hne)) as (H1 & H2 & H3).
  split; [exact H1|]. split.
  - intros k0 Hb. apply H2. eapply sc_ext_bound; [apply sc_set_ext | exact Hb].
  - intros k0 [Hk|Hk]; [|apply H3; exact Hk]. rewrite Hn in Hk. injection Hk as <-.
    apply H2. apply sc_set_bound. exact Hne.
Qed.

Lemma call_params_ok G L params :
  Forall (fun p => rt_ok G L (view p)) params ->
  forall cd, keeps (good qs G L) (call_params w params cd) (fun cd' s => params_post cd params cd' []).
Proof.
  induction 1 as [|p r Hp Hr IH]; intros cd; cbn [call_params].
  - apply keeps_ret. intros s _ Hne. split; [exact Hne|]. split; [auto | intros k []].
  - destruct p; try apply keeps_fail.
    + kb x; [apply eval_ok; eapply rt_ok_kid; [exact Hp | reflexivity | discriminate]|].
      eapply keeps_weaken; [apply IH | auto |]. intros cd' s H. eapply params_step; [exact H | reflexivity].
    + kb x; [apply render_block_ok; eapply rt_ok_kid; [exact Hp | reflexivity | discriminate]|].
      eapply keeps_weaken; [apply IH | auto |]. intros cd' s H. eapply params_step; [exact H | reflexivity].
Qed.

Lemma call_data_ok G L alldata dat :
  (forall e, dat = Some e -> rt_ok G L (view e)) ->
  keeps (good qs G L) (call_data w alldata dat)
        (fun cd _ => cd <> [] /\ (alldata = true -> forall k, In k qs -> bound cd k)).
Proof.
  intros Hd. unfold call_data. destruct alldata.
  - eapply keeps_bind; [apply good_closed | apply keeps_get_ctx |]. intros caller. cbv iota.
    destruct (sc_alldata (ctx caller)) as [sA|] eqn:Ha; [|apply keeps_fail].
    apply keeps_ret. intros s [[_ (sA' & Ha' & Hb)] <-]. rewrite Ha in Ha'. injection Ha' as <-.
    split; [discriminate|]. intros _ k Hk. apply bound_push. auto.
  - kb caller; [apply keeps_get|]. cbv iota. destruct dat as [e|].
    + kb dv; [apply eval_ok; apply Hd; reflexivity|].
      destruct dv; try apply keeps_fail. apply keeps_ret. intros s _. split; discriminate.
    + apply keeps_ret. intros s _. split; discriminate.
Qed.

(* a {call}: the data and the params are evaluated by [w] in the caller; the callee's walker [wc] starts in a
   scope that binds the params [qc], each of them passed explicitly or through data="all" *)
Lemma call_ok G L (wc : node -> M value) qc p name alldata data params callee Q :
  rt_ok G L (view (NCall p name alldata data params)) ->
  keeps (good qc [] []) (wc (t_node callee)) Q ->
  (forall k, In k qc -> In (Some k) (map param_key params) \/ alldata = true /\ In k qs) ->
  keeps (good qs G L)
        (cd <-- call_data w alldata data ;;; cd' <-- call_params w params cd ;;;
         _ <-- modify (fun st => set_cur st p) ;;; call_enter wc callee cd') anyQ.
Proof.
  intros H Hc Hqc. kids H. apply Forall_app in H as [Hdat Hparams]. apply Forall_map_view in Hparams.
  eapply keeps_bind; [apply good_closed | apply (call_data_ok G L alldata data) |].
  { intros e ->. cbn in Hdat. inversion Hdat; assumption. }
  intros cd. cbv beta. apply keeps_pure. intros [Hne Hall].
  eapply keeps_bind; [apply good_closed | apply call_params_ok; exact Hparams |].
  intros cd'. cbv beta. apply keeps_pure. intros Hpost. destruct (Hpost Hne) as (Hne' & Hkeep & Hkeys).
  kb u0; [kmod|].   (* evalCall marks the call node again before the callee runs (repair 58a9bd4) *)
  eapply keeps_enter; [|exact Hc].
  apply good_enter; [exact Hne'|]. intros k Hk.
  destruct (Hqc k Hk) as [Hin|[Had Hin]]; [apply Hkeys; exact Hin | apply Hkeep, Hall; assumption].
Qed.

Lemma plural_pick_ok G L mp i dflt cs :
  rt_ok G L (RT KOther (map view dflt)) ->
  Forall (fun c => rt_ok G L (view c)) cs ->
  keeps (good qs G L) (plural_pick w mp i dflt cs) anyQ.
Proof.
  intros Hd. induction 1 as [|c r Hc Hr IH]; cbn [plural_pick].
  - kb u; [apply w_any; exact Hd|]. apply keeps_ret_any.
  - destruct c; try apply keeps_fail. destruct (i =? v)%Z; [|exact IH].
    kids Hc. inversion Hc as [|? ? H1 _]; subst.
    kb u; [apply w_any; exact H1|]. apply keeps_ret_any.
Qed.

Lemma msg_body_ok G L mp ns :
  Forall (fun n => rt_ok G L (view n)) ns -> keeps (good qs G L) (msg_body w mp ns) anyQ.
Proof.
  induction 1 as [|x r Hx Hr IH]; cbn [msg_body]; [apply keeps_ret_any|].
  destruct x; try exact IH.
  - (* raw text *) kb u; [apply w_any; exact Hx | exact IH].
  - (* placeholder *)
    kids Hx. inversion Hx as [|? ? H1 _]; subst.
    kb u; [apply w_any; exact H1 | exact IH].
  - (* plural *)
    kids Hx. inversion Hx as [|? ? Hv Hrest]; subst. apply Forall_app in Hrest as [Hcases Hdflt].
    apply Forall_map_view in Hcases. inversion Hdflt as [|? ? Hd _]; subst.
    kb pv; [apply eval_ok; exact Hv|]. destruct pv; try apply keeps_fail.
    kb u; [apply plural_pick_ok; assumption | exact IH].
Qed.

(* [to_any]: the postcondition [post n] of a node that is not a let is [anyQ] *)
Ltac to_any := unfold post; cbn [view rt_kind]; change (fun (_ : value) (_ : scope) => True) with (@anyQ value).

(* the lookup at the head of a data reference finds its key (the other lookups, of loop counters, always do) *)
Definition ref_bound (n : node) (s : scope) : Prop :=
  match n with NDataRef _ key _ => bstr_eqb key RefView.s_ij = false -> bound s key | _ => True end.
Definition is_call (n : node) : bool := match n with NCall _ _ _ _ _ => true | _ => false end.

Lemma ref_closed G L n : ext_closed (fun s => good qs G L s /\ ref_bound n s).
Proof.
  intros s s' [Hg Hb] He. split; [eapply good_ext; eauto|]. destruct n; try exact I. cbn [ref_bound] in *.
  intros E. eapply sc_ext_bound; eauto.
Qed.

Lemma walk_node_ok G L n : is_call n = false -> rt_ok G L (view n) ->
  keeps (fun s => good qs G L s /\ ref_bound n s) (walk_node cf w n) (post n).
Proof.
  intros Hcall H. destruct n; try discriminate Hcall; cbn [ref_bound walk_node];
    try (apply keeps_pure; intros _); try (to_any; first [apply keeps_ret_any | apply keeps_fail]).
  - (* function *)
    to_any. rewrite loop_names_fn. destruct (contains loop_func_names name) eqn:Hlf.
    + apply loop_func_ok. intros p0 key acc rest ->.
      destruct H as (Hwf & _). cbn [view Wf.wf wf_body map] in Hwf. apply andb_true_iff in Hwf as [Hlo _].
      unfold loopfunc_ok in Hlo. rewrite Hlf in Hlo. cbn [negb orb] in Hlo. unfold loop_arg in Hlo.
      destruct rest; [|destruct acc; discriminate Hlo]. destruct acc; [|discriminate Hlo]. apply contains_In. exact Hlo.
    + kids H. apply Forall_map_view in H. apply call_func_ok. exact H.
  - (* list literal *)
    to_any. kids H. apply Forall_map_view in H. kb vs; [apply eval_list_ok; exact H | apply keeps_fresh_list].
  - (* map literal *)
    to_any. kids H. apply maplit_forall in H. kb kvs; [apply maplit_items_ok; exact H | apply keeps_fresh_map].
  - (* data reference: the lookup finds the key by the precondition *)
    to_any. kids H. apply Forall_map_view in H.
    eapply keeps_bind0; [apply (ref_closed G L (NDataRef p key access)) | |
                         intros ref0; apply (keeps_pre (good qs G L)); [apply dataref_access_ok; exact H | intros s0 [Hs0 _]; exact Hs0]].
    change Interp.s_ij with RefView.s_ij. destruct (bstr_eqb key RefView.s_ij) eqn:Eij.
    + destruct (c_ij cf); [apply keeps_ret_any | apply keeps_fail].
    + apply keeps_lookup. intros s [_ Hb]. apply Hb. reflexivity.
  - (* not *) to_any. kids H. inversion H; subst. kb v; [apply eval_ok; assumption | apply keeps_ret_any].
  - (* negate *) to_any. kids H. inversion H; subst. kb v; [apply evaldef_ok; assumption|]. kauto ltac:(fail).
  - (* binary *)
    to_any. kids H. inversion H as [|? ? H1 H2]; subst. inversion H2 as [|? ? H3 _]; subst.
    destruct op;
      (kb x; [first [apply evaldef_ok; exact H1 | apply eval_ok; exact H1]|]);
      try (kb y; [first [apply evaldef_ok; exact H3 | apply eval_ok; exact H3]|]; kauto ltac:(fail));
      kauto ltac:(first [apply eval_ok; exact H3 | (kb y; [apply eval_ok; exact H3|])]).
  - (* ternary *)
    to_any. kids H. inversion H as [|? ? H1 H2]; subst. inversion H2 as [|? ? H3 H4]; subst. inversion H4 as [|? ? H5 _]; subst.
    kb c; [apply eval_ok; exact H1|]. destruct (truthy c); apply eval_ok; assumption.
  - (* list: a block *)
    to_any. cbn [view] in H. apply rt_ok_block in H.
    eapply keeps_scoped; [intros s Hs; apply good_push; exact Hs | apply walk_list_ok; exact H].
  - (* raw text *) to_any. kb u; [apply keeps_write | apply keeps_ret_any].
  - (* print *)
    to_any. kids H. inversion H as [|? ? Harg Hdirs]; subst. apply Forall_map_view in Hdirs.
    kb v; [apply w_any; exact Harg|].
    assert (Hk : keeps (good qs G L)
                   (ds <-- print_dirs cf w dirs v ;;; s <-- lift (value_string v) ;;; st <-- get ;;;
                    ws <-- lift (print_writes (mode st) ds s) ;;; _ <-- write_all ws ;;; ret VUndef) anyQ).
    { kb ds; [apply print_dirs_ok; exact Hdirs|]. kb s; [apply keeps_lift|]. kb st; [apply keeps_get|].
      kb ws; [apply keeps_lift|]. kb u; [apply keeps_write_all; apply good_closed | apply keeps_ret_any]. }
    destruct v; first [apply keeps_fail | exact Hk].
  - (* css *)
    to_any. kids H. kb pre; [|kb u; [apply keeps_write | apply keeps_ret_any]].
    destruct expr as [x|]; [|apply keeps_ret_any]. cbn in H. inversion H; subst.
    kb v; [apply eval_ok; assumption|]. kb s; [apply keeps_lift | apply keeps_ret_any].
  - (* log *) to_any. kids H. inversion H; subst. kb u; [apply render_block_ok; assumption | apply keeps_ret_any].
  - (* if *) to_any. kids H. apply Forall_map_view in H. apply if_conds_ok. exact H.
  - (* for *)
    to_any. cbn [view] in H. apply rt_ok_for in H as (l & bd & ie & Hk & Hl & Hb & Hie). injection Hk as <- <- <-.
    kb lv; [apply eval_ok; exact Hl|]. destruct lv; try apply keeps_fail. destruct l as [|x0 l0].
    + destruct ifempty as [ie|]; [|apply keeps_ret_any]. cbn in Hie. inversion Hie; subst.
      kb u; [apply w_any; assumption | apply keeps_ret_any].
    + eapply keeps_ext;
        [|eapply (keeps_scoped (good qs G L) (good qs G L)
                    (_ <-- m_set (var ++ s_lastindex) (VInt (Z.of_nat (length (x0 :: l0)) - 1)) ;;; for_items w var n2 0%Z (x0 :: l0)));
          [intros s Hs; apply good_push; exact Hs|]].
      * intros st. apply mbind_ext. intros u s. rewrite mbind_assoc. reflexivity.
      * eapply keeps_bind; [apply good_closed | apply keeps_set |]. intros u.
        eapply keeps_pre; [apply for_items_ok; exact Hb|]. tauto.
  - (* switch *)
    to_any. kids H. inversion H as [|? ? Hv Hcases]; subst. apply Forall_map_view in Hcases.
    kb sv; [apply eval_ok; exact Hv | apply switch_cases_ok; exact Hcases].
  - (* let value *)
    kids H. inversion H; subst. unfold post. cbn [view rt_kind].
    kb v; [apply eval_ok; assumption|].
    eapply keeps_bind; [apply good_closed | apply keeps_set |]. intros u.
    apply keeps_ret. intros s [_ [Hb _]]. exact Hb.
  - (* let content *)
    kids H. inversion H; subst. unfold post. cbn [view rt_kind].
    kb v; [apply render_block_ok; assumption|].
    eapply keeps_bind; [apply good_closed | apply keeps_set |]. intros u.
    apply keeps_ret. intros s [_ [Hb _]]. exact Hb.
  - (* msg *)
    to_any. kids H. apply Forall_map_view in H. kb u; [apply msg_body_ok; exact H | apply keeps_ret_any].
  - (* html tag in a message *) to_any. kb u; [apply keeps_write | apply keeps_ret_any].
  - (* template *)
    to_any. kids H. inversion H; subst. kb u; [kmod|]. kb u2; [apply w_any; assumption | apply keeps_ret_any].
Qed.

Lemma walk_body_ok G L n : is_call n = false -> rt_ok G L (view n) ->
  keeps (fun s => good qs G L s /\ ref_bound n s) (walk_body cf w n) (post n).
Proof.
  intros Hc H. unfold walk_body.
  eapply keeps_bind0; [apply ref_closed | kmod | intros u; apply walk_node_ok; assumption].
Qed.
End Body.
End Link.

(* the renderer when every call passes every param its callee declares: the scope binds the
   params of the template being executed *)

Section Total.
Variable cf : cfg.
Let T := r_templates (c_reg cf).
Let tparams (t : template) := map fst (t_params t).

Definition total_ok (w : node -> M value) : Prop :=
  forall ps, w_ok cf (calls_total_rt T ps) ps ps w.

(* the registry: every template body is well-formed under its own params *)
Hypothesis Hreg : forall t, In t T -> rt_ok cf (calls_total_rt T (tparams t)) (tparams t) [] [] (view (t_node t)).

Lemma walk_body_total w : total_ok w -> total_ok (walk_body cf w).
Proof.
  intros Hw ps G L n H. destruct (is_call n) eqn:Hc.
  - destruct n; try discriminate Hc. unfold walk_body, post. cbn [walk_node pos_of view rt_kind].
    change (fun (_ : value) (_ : scope) => True) with (@anyQ value).
    eapply keeps_bind0; [apply good_closed | apply keeps_modify; intros; split; reflexivity | intros u].
    pose proof H as (_ & _ & Htot). cbn [view calls_total_rt] in Htot. fold T in Htot |- *.
    destruct (find_template T name) as [callee|] eqn:Hfind; [|apply keeps_fail].
    apply andb_true_iff in Htot as [Htot _]. apply andb_true_iff in Htot as [_ Htot].
    eapply (call_ok cf _ (calls_total_hereditary T ps) ps ps w (Hw ps) G L w (tparams callee)); [exact H | |].
    + apply Hw, Hreg. eapply find_template_In. exact Hfind.
    + intros k Hk. rewrite forallb_forall in Htot. specialize (Htot k Hk). apply orb_true_iff in Htot as [Hex|Hall].
      * left. apply existsb_exists in Hex as ([k'|] & Hin & Heq); [|discriminate].
        destruct (bstr_eqb_spec k' k) as [->|]; [exact Hin | discriminate].
      * right. apply andb_true_iff in Hall as [Had Hc']. split; [exact Had | apply contains_In; exact Hc'].
  - eapply keeps_pre; [apply (walk_body_ok cf _ (calls_total_hereditary T ps) ps ps w (Hw ps) G L n Hc H)|].
    intros s Hs. split; [exact Hs|]. destruct n; try exact I. cbn [ref_bound]. intros Hij.
    destruct H as (Hwf & _). cbn [view Wf.wf wf_body] in Hwf. apply andb_true_iff in Hwf as [Hkey _].
    rewrite Hij in Hkey. apply (proj1 Hs). apply orb_true_iff in Hkey as [Hk|Hk]; apply contains_In in Hk; auto.
Qed.

Theorem walk_ok fuel : total_ok (walk cf fuel).
Proof.
  induction fuel as [|f IH].
  - intros ps G L n H st r st' Hp Hr. cbn in Hr. inversion Hr; subst. split; [reflexivity|]. intros v Hv. discriminate.
  - intros ps G L n H. rewrite walk_S. apply walk_body_total; assumption.
Qed.
End Total.

Lemma shaped_loops_ok : forall t, shaped t = true -> loops_ok t = true.
Proof.
  refine (rt_induction (fun t => shaped t = true -> loops_ok t = true) _). intros k kids IH H. cbn [shaped] in H. apply andb_true_iff in H as [H Hk]. apply andb_true_iff in H as [Hb Hf].
  cbn [loops_ok]. apply andb_true_iff. split.
  - destruct k; try reflexivity. cbn [is_block_kind orb] in Hb. rewrite Hf, Hb. reflexivity.
  - apply forallb_forall. intros c Hc. rewrite Forall_forall in IH. rewrite forallb_forall in Hk. auto.
Qed.

Lemma registry_shaped_loops_ok reg : registry_shaped reg = true -> registry_loops_ok reg = true.
Proof.
  unfold registry_shaped, registry_loops_ok. rewrite !forallb_forall. intros H t Ht. apply shaped_loops_ok. auto.
Qed.

Theorem accepted_no_unbound_lookup cf fuel name t data_id data cl bl first_id :
  check_registry (c_reg cf) = Accept ->
  registry_shaped (c_reg cf) = true ->
  calls_total (c_reg cf) = true ->
  find_template (r_templates (c_reg cf)) name = Some t ->
  (forall p, In p (map fst (t_params t)) -> assoc_s p data <> None) ->
  rr_unbound (render cf fuel name data_id data cl bl first_id) = 0%nat.
Proof.
  intros Hchk Hsh Htot Hfind Hdata.
  apply check_registry_iff in Hchk; [|apply registry_shaped_loops_ok; exact Hsh].
  assert (Hreg : forall t0, In t0 (r_templates (c_reg cf)) ->
                 rt_ok cf (calls_total_rt (r_templates (c_reg cf)) (map fst (t_params t0))) (map fst (t_params t0)) [] [] (view (t_node t0))).
  { intros t0 Ht0. unfold wf_registry, wf_templates in Hchk. unfold registry_shaped in Hsh. unfold calls_total in Htot.
    rewrite forallb_forall in Hchk, Hsh, Htot. specialize (Hchk t0 Ht0). unfold wf_template, wf_template_node in Hchk.
    apply andb_true_iff in Hchk as [Hwf _]. split; [exact Hwf|]. split; auto. }
  unfold render. rewrite Hfind.
  set (st0 := init_state (sc_enter (new_scope data_id data)) (entry_mode (t_ns_autoescape t)) name cl bl first_id).
  destruct (walk cf fuel (t_node t) st0) as [r st] eqn:Hrun.
  assert (Hu : unbound st = 0%nat).
  { pose proof (walk_ok cf Hreg fuel (map fst (t_params t)) [] [] (t_node t)
                  (Hreg t (find_template_In _ _ _ Hfind)) st0 r st) as H.
    destruct H as [H _]; [|exact Hrun | exact H].
    subst st0. cbn [init_state ctx]. apply good_enter; [discriminate|].
    intros k Hk. unfold new_scope. apply bound_cons. left. unfold fdom. cbn [f_vars]. apply Hdata. exact Hk. }
  destruct r; cbn [rr_unbound]; try exact Hu.
  destruct (assoc_s name (r_sources (c_reg cf))) as [src|], (assoc_s name (r_files (c_reg cf))) as [file|];
    cbn [rr_unbound]; try exact Hu.
  destruct (line_number src (cur st)); cbn [rr_unbound]; exact Hu.
Qed.

(* from a bundle: what Bundle.Compile accepted is a registry CheckDataRefs accepted *)
Lemma compile_check_registry fs : compile_check fs = Accept ->
  exists ts, add_files [] fs = AddOk ts /\ check_registry (registry_of ts fs) = Accept.
Proof.
  unfold compile_check. destruct (add_files [] fs) as [ts|r]; [|discriminate]. intros H. exists ts. split; [reflexivity | exact H].
Qed.

Theorem accepted_bundle_no_unbound_lookup fs cf fuel name t data_id data cl bl first_id :
  compile_check fs = Accept ->
  (forall ts, add_files [] fs = AddOk ts -> c_reg cf = registry_of ts fs) ->
  registry_shaped (c_reg cf) = true ->
  calls_total (c_reg cf) = true ->
  find_template (r_templates (c_reg cf)) name = Some t ->
  (forall p, In p (map fst (t_params t)) -> assoc_s p data <> None) ->
  rr_unbound (render cf fuel name data_id data cl bl first_id) = 0%nat.
Proof.
  intros Hc Hreg. destruct (compile_check_registry fs Hc) as (ts & Hadd & Hchk). rewrite <- (Hreg ts Hadd) in Hchk.
  apply accepted_no_unbound_lookup. exact Hchk.
Qed.
