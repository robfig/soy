(* C19, parse half: scanner model and parser model composed, for ALL inputs of one shape --
   plain ASCII text (any number of lines, no '/', '{', '}') followed by a stray closing brace and
   anything whatsoever after it: parse.SoyFile's model returns the lexical error positioned at the
   scanner's error item, and the line lexer.lineNumber computes from it is the line of the brace. *)
From Soy Require Import Model.Bytes Model.Outcome Model.Ast Model.Token Model.Lexer Model.Parser Model.Interp Spec.ErrPos
  Proofs.ErrTokProofs Proofs.LexErrPos.
From Coq Require Import Lia.
Open Scope N_scope.

Lemma item_list_S inlen lexq unq pexpr efuel f until s :
  item_list inlen lexq unq pexpr efuel (S f) until s =
  item_list_loop inlen lexq unq pexpr efuel (lift_expr inlen pexpr f) (item_list inlen lexq unq pexpr efuel f) f (S f) until None [] s.
Proof. reflexivity. Qed.

Lemma item_list_loop_S inlen lexq unq pexpr efuel pe w lf f until pos acc s :
  item_list_loop inlen lexq unq pexpr efuel pe w lf (S f) until pos acc s =
  cbind (c_next s) (fun token s1 =>
    let pos1 := match pos with Some p => p | None => t_pos token end in
    cbind (text_or_tag inlen lexq unq pexpr efuel pe w lf token until s1) (fun r s2 =>
      if snd r then COk (NList pos1 acc) s2
      else item_list_loop inlen lexq unq pexpr efuel pe w lf f until (Some pos1)
             (match fst r with Some n => acc ++ [n] | None => acc end) s2)).
Proof. reflexivity. Qed.

Theorem stray_brace_end_to_end ul ud lexq unq fuel txt rest :
  Forall plain txt ->
  let s := txt ++ 125 :: rest in
  let e := err_item (Z.of_nat (length txt) + 1) e_close_brace in
  lex_items ul ud (S fuel) false s = Ok [e] /\
  (exists st, po_result (soy_file (N.of_nat (length s)) lexq unq [e]) = PErr e e_lexical st) /\
  line_at s (t_pos e) = 1 + count_nl txt.
Proof.
  intros Hpl s e.
  assert (Hlex : lex_items ul ud (S fuel) false s = Ok [e]).
  { unfold lex_items, lex_run, lex_run_at, entry_state.
    destruct (stray_brace ul ud s 0%Z (Z.le_refl 0) fuel lex_init txt rest Hpl) as (l' & Hr & Ho); [cbn; lia | reflexivity|].
    rewrite Hr. cbn [bind]. rewrite Ho. reflexivity. }
  split; [exact Hlex|]. split.
  - assert (Hpos : t_pos e <= N.of_nat (length s)).
    { unfold e, err_item, s. cbn [t_pos]. rewrite app_length. cbn [length]. lia. }
    unfold soy_file, parse_file, file_fuel.
    change (length [e] + 8)%nat with 9%nat.
    rewrite item_list_S, item_list_loop_S.
    change (c_next (cst_init [e])) with (COk e (set_p (cst_init [e]) (snd (p_next (pst_init [e]))))).
    cbn [cbind].
    match goal with |- context [text_or_tag ?i ?lq ?u ?px ?ef ?pe ?w (S ?lf) e ?un ?st] =>
      destruct (text_or_tag_error_item i lq u px ef pe w lf e un st) as (s' & Ht);
        [reflexivity | reflexivity | cbn; lia | exact Hpos | rewrite Ht]
    end.
    cbn [cbind po_result]. eexists. reflexivity.
  - unfold e, err_item, s. cbn [t_pos].
    replace (Z.to_N (Z.of_nat (length txt) + 1)) with (N.of_nat (length txt) + 1) by lia.
    apply stray_brace_line.
Qed.
