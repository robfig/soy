(* NumLit.parse_float_round against Flocq. *)
From Coq Require Import ZArith Reals Lia Lra.
From Flocq Require Import Core.Core Core.Digits Core.Float_prop Core.Round_NE.
From Soy Require Import Model.Bytes Model.Utf8 Model.Num Model.NumLit Proofs.NumLitProofs Proofs.FloatRtRound Proofs.FloatFlocqBase.
From Soy Require Proofs.FloatRtText.
From Coq Require Import ZifyBool List.
Import ListNotations.
Open Scope Z_scope.

Lemma nf_znearest_div (nn dd : Z) : 0 <= nn -> 0 < dd ->
  ZnearestE (IZR nn / IZR dd) =
  (let q := nn / dd in let r := nn mod dd in
   if 2 * r <? dd then q else if dd <? 2 * r then q + 1 else if Z.even q then q else q + 1).
Proof.
  intros Hn Hd. cbv zeta.
  pose proof (Z.div_mod nn dd ltac:(lia)) as Hdm. pose proof (Z.mod_pos_bound nn dd Hd) as Hr.
  set (q := nn / dd) in *. set (r := nn mod dd) in *.
  assert (Hdd : (0 < IZR dd)%R) by (apply IZR_lt; exact Hd).
  assert (Hx : (IZR nn / IZR dd = IZR q + IZR r / IZR dd)%R).
  { rewrite Hdm. rewrite plus_IZR, mult_IZR. field. lra. }
  assert (Hfl : Zfloor (IZR nn / IZR dd) = q) by (apply Zfloor_div; lia).
  unfold ZnearestE, Znearest. rewrite Hfl. rewrite Hx.
  replace (IZR q + IZR r / IZR dd - IZR q)%R with (IZR r / IZR dd)%R by ring.
  assert (Hcmp : Rcompare (IZR r / IZR dd) (/ 2) = (2 * r ?= dd)).
  { destruct (Z.compare_spec (2 * r) dd) as [E|L|G].
    - apply Rcompare_Eq. rewrite <- E. rewrite mult_IZR. field. apply IZR_neq. lia.
    - apply Rcompare_Lt. apply IZR_lt in L. rewrite mult_IZR in L.
      apply (Rmult_lt_reg_r (IZR dd)); [exact Hdd|]. unfold Rdiv. rewrite Rmult_assoc, Rinv_l by lra. lra.
    - apply Rcompare_Gt. apply IZR_lt in G. rewrite mult_IZR in G.
      apply (Rmult_lt_reg_r (IZR dd)); [exact Hdd|]. unfold Rdiv. rewrite Rmult_assoc, Rinv_l by lra. lra. }
  rewrite Hcmp.
  assert (Hceil : 0 < r -> Zceil (IZR q + IZR r / IZR dd) = q + 1).
  { intros Hr0. apply Zceil_imp. rewrite plus_IZR. replace (q + 1 - 1) with q by lia.
    assert (0 < IZR r / IZR dd <= 1)%R.
    { split; [apply Rdiv_lt_0_compat; [apply IZR_lt; lia|exact Hdd]|].
      apply (Rmult_le_reg_r (IZR dd)); [exact Hdd|]. unfold Rdiv. rewrite Rmult_assoc, Rinv_l by lra.
      assert (IZR r <= IZR dd)%R by (apply IZR_le; lia). lra. }
    simpl (IZR 1). lra. }
  destruct (Z.compare_spec (2 * r) dd) as [E|L|G].
  - replace (2 * r <? dd) with false by lia. replace (dd <? 2 * r) with false by lia.
    rewrite Hceil by lia. destruct (Z.even q); reflexivity.
  - replace (2 * r <? dd) with true by lia. reflexivity.
  - replace (2 * r <? dd) with false by lia. replace (dd <? 2 * r) with true by lia. apply Hceil. lia.
Qed.

(* binary64: FLT_exp (-1074) 53, overflow threshold 2^1024 *)
Definition nf_fexp : Z -> Z := FLT_exp (-1074) 53.
Definition nf_round (x : R) : R := round radix2 nf_fexp ZnearestE x.

Lemma nf_bpow_IZR e : 0 <= e -> bpow radix2 e = IZR (2 ^ e).
Proof. intros He. symmetry. exact (IZR_Zpower radix2 e He). Qed.

(* x * 2^(-e) as the quotient of the scaled integers *)
Lemma nf_scale n d e : 0 < d ->
  (IZR n / IZR d * bpow radix2 (- e) = IZR (scale_num n e) / IZR (scale_den d e))%R.
Proof.
  intros Hd. assert (Hdd : (IZR d <> 0)%R) by (apply IZR_neq; lia).
  unfold scale_num, scale_den. destruct (Z.leb_spec 0 e) as [He|He].
  - rewrite bpow_opp, (nf_bpow_IZR e He), mult_IZR.
    assert (IZR (2 ^ e) <> 0)%R by (apply IZR_neq; pose proof (Z.pow_pos_nonneg 2 e); lia). field. auto.
  - rewrite (nf_bpow_IZR (- e)) by lia. rewrite mult_IZR. field. exact Hdd.
Qed.

Lemma nf_scale_num_nonneg n e : 0 <= n -> 0 <= scale_num n e.
Proof. intros Hn. unfold scale_num. destruct (Z.leb_spec 0 e); [exact Hn|]. apply Z.mul_nonneg_nonneg; [exact Hn|apply Z.pow_nonneg; lia]. Qed.

Lemma nf_floor n d e : 0 < d -> floor_div_pow2 n d e = Zfloor (IZR n / IZR d * bpow radix2 (- e)).
Proof.
  intros Hd. rewrite (nf_scale n d e Hd). unfold floor_div_pow2. symmetry. apply Zfloor_div.
  pose proof (scale_den_pos d e Hd). lia.
Qed.

Lemma nf_round_div n d e : 0 <= n -> 0 < d -> round_div_pow2 n d e = ZnearestE (IZR n / IZR d * bpow radix2 (- e)).
Proof.
  intros Hn Hd. rewrite (nf_scale n d e Hd).
  rewrite (nf_znearest_div _ _ (nf_scale_num_nonneg n e Hn) (scale_den_pos d e Hd)). reflexivity.
Qed.

(* powers of two around a positive integer *)
Lemma nf_log2_bounds n : 0 < n -> (bpow radix2 (Z.log2 n) <= IZR n < bpow radix2 (Z.log2 n + 1))%R.
Proof.
  intros Hn. pose proof (Z.log2_spec n Hn) as [L1 L2]. pose proof (Z.log2_nonneg n) as L0. rewrite <- Z.add_1_r in L2.
  rewrite !nf_bpow_IZR by lia. split; [apply IZR_le; exact L1|apply IZR_lt; exact L2].
Qed.

(* the canonical exponent of binary64 from bounds on x *)
Lemma nf_cexp x e : (0 < x)%R -> -1074 <= e -> (x < bpow radix2 (e + 53))%R ->
  (e = -1074 \/ (bpow radix2 (e + 52) <= x)%R) -> cexp radix2 nf_fexp x = e.
Proof.
  intros Hx He Hup Hlo. unfold cexp, nf_fexp, FLT_exp.
  destruct (Rle_lt_dec (bpow radix2 (e + 52)) x) as [Hn|Hs].
  - rewrite (mag_unique_pos radix2 x (e + 53)); [lia|]. replace (e + 53 - 1) with (e + 52) by lia. split; assumption.
  - destruct Hlo as [->|Hlo]; [|lra].
    assert (mag radix2 x <= -1074 + 52)%Z; [|lia].
    apply mag_le_bpow; [lra|]. rewrite Rabs_pos_eq by lra. exact Hs.
Qed.

Lemma nf_round_at x e : cexp radix2 nf_fexp x = e ->
  nf_round x = F2R (Float radix2 (ZnearestE (x * bpow radix2 (- e))) e).
Proof. intros H. unfold nf_round, round, scaled_mantissa. rewrite H. reflexivity. Qed.

(* the exponent round_ratio chooses is binary64's canonical exponent of n/d *)
Lemma nf_exponent n d : 0 < n -> 0 < d -> cexp radix2 nf_fexp (IZR n / IZR d) = ratio_exp n d.
Proof.
  intros Hn Hd. unfold ratio_exp. set (L := Z.log2 n - Z.log2 d). set (e2 := Z.max (L - 53) (-1074)).
  set (x := (IZR n / IZR d)%R).
  pose proof (nf_log2_bounds n Hn) as [N1 N2]. pose proof (nf_log2_bounds d Hd) as [D1 D2].
  assert (Hdp : (0 < IZR d)%R) by (apply IZR_lt; lia). assert (Hnp : (0 < IZR n)%R) by (apply IZR_lt; lia).
  assert (Hx : (0 < x)%R) by (apply Rdiv_lt_0_compat; assumption).
  assert (Xup : (x < bpow radix2 (L + 1))%R).
  { unfold x. apply (Rmult_lt_reg_r (IZR d)); [exact Hdp|]. unfold Rdiv. rewrite Rmult_assoc, Rinv_l, Rmult_1_r by lra.
    replace (L + 1) with ((Z.log2 n + 1) + - Z.log2 d) by (unfold L; lia). rewrite bpow_plus, bpow_opp.
    pose proof (bpow_gt_0 radix2 (Z.log2 d)). pose proof (bpow_gt_0 radix2 (Z.log2 n + 1)).
    apply Rlt_le_trans with (1 := N2). rewrite Rmult_assoc.
    rewrite <- (Rmult_1_r (bpow radix2 (Z.log2 n + 1))) at 1. apply Rmult_le_compat_l; [lra|].
    apply (Rmult_le_reg_l (bpow radix2 (Z.log2 d))); [lra|]. rewrite <- Rmult_assoc, Rinv_r, Rmult_1_l, Rmult_1_r by lra. exact D1. }
  assert (Xlo : (bpow radix2 (L - 1) < x)%R).
  { unfold x. apply (Rmult_lt_reg_r (IZR d)); [exact Hdp|]. unfold Rdiv at 1. rewrite (Rmult_assoc (IZR n)), Rinv_l, Rmult_1_r by lra.
    replace (L - 1) with (Z.log2 n + - (Z.log2 d + 1)) by (unfold L; lia). rewrite bpow_plus, bpow_opp.
    pose proof (bpow_gt_0 radix2 (Z.log2 d + 1)). pose proof (bpow_gt_0 radix2 (Z.log2 n)).
    apply Rlt_le_trans with (2 := N1). rewrite Rmult_assoc.
    rewrite <- (Rmult_1_r (bpow radix2 (Z.log2 n))) at 2. apply Rmult_lt_compat_l; [lra|].
    apply (Rmult_lt_reg_l (bpow radix2 (Z.log2 d + 1))); [lra|]. rewrite <- Rmult_assoc, Rinv_r, Rmult_1_l, Rmult_1_r by lra. exact D2. }
  rewrite (nf_floor n d e2 Hd). fold x.
  assert (P53 : IZR two53 = bpow radix2 53) by (unfold two53; rewrite (nf_bpow_IZR 53) by lia; reflexivity).
  assert (Sc : forall a c, (x < bpow radix2 a -> x * bpow radix2 (- c) < bpow radix2 (a - c))%R).
  { intros a c H. unfold Z.sub. rewrite bpow_plus. apply Rmult_lt_compat_r; [apply bpow_gt_0|exact H]. }
  assert (Sc' : forall a c, (bpow radix2 a <= x * bpow radix2 (- c) -> bpow radix2 (a + c) <= x)%R).
  { intros a c H. rewrite bpow_plus. apply (Rmult_le_reg_r (bpow radix2 (- c))); [apply bpow_gt_0|].
    rewrite Rmult_assoc, <- bpow_plus. replace (c + - c) with 0 by lia. rewrite Rmult_1_r. exact H. }
  assert (Sc'' : forall a c, (x * bpow radix2 (- c) < bpow radix2 a -> x < bpow radix2 (a + c))%R).
  { intros a c H. rewrite bpow_plus. apply (Rmult_lt_reg_r (bpow radix2 (- c))); [apply bpow_gt_0|].
    rewrite Rmult_assoc, <- bpow_plus. replace (c + - c) with 0 by lia. rewrite Rmult_1_r. exact H. }
  destruct (Z.leb_spec two53 (Zfloor (x * bpow radix2 (- e2)))) as [Hge|Hlt].
  - (* the quotient has 54 bits: one more *)
    assert (Hy : (bpow radix2 53 <= x * bpow radix2 (- e2))%R).
    { rewrite <- P53. apply Rle_trans with (2 := Zfloor_lb _). apply IZR_le. exact Hge. }
    assert (E21 : e2 = L - 53).
    { destruct (Z.eq_dec e2 (L - 53)) as [E|E]; [exact E|]. exfalso.
      assert (L - 53 + 1 <= e2) by (unfold e2 in *; lia).
      pose proof (Sc (L + 1) e2 Xup) as H1. assert (bpow radix2 (L + 1 - e2) <= bpow radix2 53)%R by (apply bpow_le; lia). lra. }
    apply nf_cexp; [exact Hx|unfold e2; lia| |right].
    + replace (e2 + 1 + 53) with (L + 1) by lia. exact Xup.
    + replace (e2 + 1 + 52) with (53 + e2) by lia. apply Sc'. exact Hy.
  - assert (Hy : (x * bpow radix2 (- e2) < bpow radix2 53)%R).
    { rewrite <- P53. apply Rlt_le_trans with (1 := Zfloor_ub _). rewrite <- (plus_IZR _ 1). apply IZR_le. lia. }
    apply nf_cexp; [exact Hx|unfold e2; lia| |].
    + rewrite Z.add_comm. apply Sc''. exact Hy.
    + destruct (Z.eq_dec e2 (-1074)) as [E|E]; [left; exact E|right].
      assert (E21 : e2 = L - 53) by (unfold e2 in *; lia). replace (e2 + 52) with (L - 1) by lia. lra.
Qed.

(* p * 2^e against 2^1024 *)
Lemma nf_overflow_test (p : positive) e :
  if 1024 <=? Z.log2 (Zpos p) + e then (bpow radix2 1024 <= F2R (Float radix2 (Zpos p) e))%R
  else (F2R (Float radix2 (Zpos p) e) < bpow radix2 1024)%R.
Proof.
  pose proof (nf_log2_bounds (Zpos p) ltac:(lia)) as [L1 L2]. unfold F2R; cbn [Fnum Fexp].
  pose proof (bpow_gt_0 radix2 e) as He.
  destruct (Z.leb_spec 1024 (Z.log2 (Zpos p) + e)) as [H|H].
  - apply Rle_trans with (bpow radix2 (Z.log2 (Zpos p) + e)); [apply bpow_le; exact H|].
    rewrite bpow_plus. apply Rmult_le_compat_r; lra.
  - apply Rlt_le_trans with (bpow radix2 (Z.log2 (Zpos p) + 1 + e)); [|apply bpow_le; lia].
    rewrite bpow_plus. apply Rmult_lt_compat_r; lra.
Qed.

(* what a result of the conversion says about the real number x it converts: err == nil with the value
   round(x) (sign applied), below the overflow threshold; or ErrRange exactly when round(x) reaches 2^1024 *)
Definition nf_res_spec (neg : bool) (x : R) (r : float_res) : Prop :=
  match r with
  | FRVal f => ff_R f = cond_Ropp neg (nf_round x) /\ (nf_round x < bpow radix2 1024)%R /\
               match f with FFin m _ => (m <? 0) = neg /\ nf_round x <> 0%R | FZero s => s = neg /\ nf_round x = 0%R | _ => False end
  | FRRange => (bpow radix2 1024 <= nf_round x)%R
  | FRSyntax => False
  end.

Theorem nf_round_ratio neg n d : 0 < n -> 0 < d -> nf_res_spec neg (IZR n / IZR d) (round_ratio neg n d).
Proof.
  intros Hn Hd. pose proof (nf_exponent n d Hn Hd) as Hc.
  unfold round_ratio. cbv zeta. fold (ratio_exp n d). set (e := ratio_exp n d) in *.
  pose proof (nf_round_at _ _ Hc) as Hr. rewrite <- (nf_round_div n d e ltac:(lia) Hd) in Hr.
  assert (Hnn : 0 <= round_div_pow2 n d e).
  { rewrite (nf_round_div n d e ltac:(lia) Hd). apply Z.le_trans with (ZnearestE (IZR 0)); [rewrite (@Zrnd_IZR _ (valid_rnd_N _)); apply Z.le_refl|].
    apply (@Zrnd_le _ (valid_rnd_N _)). simpl (IZR 0). apply Rmult_le_pos; [|apply Rlt_le, bpow_gt_0].
    apply Rlt_le, Rdiv_lt_0_compat; apply IZR_lt; lia. }
  destruct (round_div_pow2 n d e) as [|p|p] eqn:Ep; try lia.
  - cbn [nf_res_spec ff_R]. rewrite Hr, F2R_0. repeat split; [destruct neg; cbn; lra|apply bpow_gt_0].
  - pose proof (nf_overflow_test p e) as Ho. destruct (1024 <=? Z.log2 (Zpos p) + e).
    + cbn [nf_res_spec]. rewrite Hr. exact Ho.
    + destruct (strip2 p e) as [m e'] eqn:Es. cbn [nf_res_spec ff_R]. rewrite Hr.
      split; [|split; [exact Ho|split]].
      * rewrite <- (ff_strip2 p e m e' Es neg). destruct neg; cbn [cond_Ropp]; [|reflexivity].
        change (Zneg p) with (- Zpos p). apply F2R_Zopp.
      * destruct neg; reflexivity.
      * apply Rgt_not_eq. apply F2R_gt_0. reflexivity.
Qed.

Definition nf_digits (s : bstr) : Prop := Forall (fun c => is_dec_digit c = true) s.

Lemma nf_span_digits s : forall d r, span_digits s = (d, r) -> s = (d ++ r)%list /\ nf_digits d.
Proof.
  induction s as [|c s IH]; intros d r H; cbn [span_digits] in H.
  - injection H as <- <-. split; [reflexivity|constructor].
  - destruct (is_dec_digit c) eqn:Ec.
    + destruct (span_digits s) as [d' r'] eqn:Es. injection H as <- <-. destruct (IH d' r' eq_refl) as [-> Hd].
      split; [reflexivity|constructor; assumption].
    + injection H as <- <-. split; [reflexivity|constructor].
Qed.

Lemma nf_dec_val_bound s : nf_digits s -> forall acc, (dec_val s acc < (acc + 1) * 10 ^ N.of_nat (length s))%N.
Proof.
  induction 1 as [|c s Hc Hs IH]; intros acc; cbn [dec_val length].
  - cbn. lia.
  - specialize (IH (acc * 10 + (c - 48))%N). unfold is_dec_digit, in_range in Hc.
    replace (N.of_nat (S (length s))) with (1 + N.of_nat (length s))%N by lia. rewrite N.pow_add_r. 
    change (10 ^ 1)%N with 10%N. nia.
Qed.

(* the decimal value of a literal, sign apart: digits * 10^(exponent - number of fraction digits) *)
Definition nf_lit_k (l : float_lit) : Z :=
  (if lit_eneg l then - Z.of_N (dec_val (lit_exp l) 0) else Z.of_N (dec_val (lit_exp l) 0)) - Z.of_nat (length (lit_frac l)).
Definition nf_lit_abs (l : float_lit) : R :=
  let d := Z.of_N (dec_val (lit_int l ++ lit_frac l) 0) in
  let k := nf_lit_k l in
  if 0 <=? k then IZR (d * 10 ^ k) else (IZR d / IZR (10 ^ (- k)))%R.

Lemma nf_valid_exp : Valid_exp nf_fexp.
Proof. apply FLT_exp_valid. exact ff_prec_gt_0. Qed.
#[local] Existing Instance nf_valid_exp.

Lemma nf_round_0 : nf_round 0 = 0%R.
Proof. unfold nf_round. apply round_0. apply valid_rnd_N. Qed.

(* at least 2^1024: ErrRange *)
Lemma nf_round_big x : (bpow radix2 1024 <= x)%R -> (bpow radix2 1024 <= nf_round x)%R.
Proof.
  intros H. unfold nf_round. apply round_ge_generic; [exact nf_valid_exp|apply valid_rnd_N| |exact H].
  apply generic_format_bpow. unfold nf_fexp, FLT_exp. lia.
Qed.

(* below half of the least subnormal: zero *)
Lemma nf_round_tiny x : (0 < x < bpow radix2 (-1075))%R -> nf_round x = 0%R.
Proof.
  intros [H0 H1].
  assert (Hc : cexp radix2 nf_fexp x = -1074).
  { apply nf_cexp; [exact H0|lia| |left; reflexivity].
    apply Rlt_trans with (1 := H1). apply bpow_lt. lia. }
  rewrite (nf_round_at x _ Hc). replace (ZnearestE (x * bpow radix2 (- -1074))) with 0; [apply F2R_0|].
  symmetry. apply Znearest_imp. simpl (IZR 0). rewrite Rminus_0_r.
  assert (0 < x * bpow radix2 (- -1074) < / 2)%R; [|rewrite Rabs_pos_eq; lra].
  split; [apply Rmult_lt_0_compat; [exact H0|apply bpow_gt_0]|].
  replace (/ 2)%R with (bpow radix2 (-1075) * bpow radix2 (- -1074))%R.
  - apply Rmult_lt_compat_r; [apply bpow_gt_0|exact H1].
  - rewrite <- bpow_plus. reflexivity.
Qed.

Theorem nf_float_of_lit l : nf_digits (lit_int l ++ lit_frac l) ->
  nf_res_spec (lit_neg l) (nf_lit_abs l) (float_of_lit l).
Proof.
  intros Hdig. unfold float_of_lit, nf_lit_abs. cbv zeta. fold (nf_lit_k l).
  set (ds := (lit_int l ++ lit_frac l)%list) in *. set (dv := dec_val ds 0). set (k := nf_lit_k l).
  pose proof (nf_dec_val_bound ds Hdig 0%N) as Hb. fold dv in Hb.
  destruct (N.eqb_spec dv 0) as [E0|E0].
  - (* all digits zero *)
    assert (Ex : (if 0 <=? k then IZR (Z.of_N dv * 10 ^ k) else (IZR (Z.of_N dv) / IZR (10 ^ (- k)))%R) = 0%R).
    { rewrite E0. destruct (0 <=? k); [rewrite Z.mul_0_l; reflexivity|]. simpl (IZR (Z.of_N 0)). unfold Rdiv. apply Rmult_0_l. }
    rewrite Ex. cbn [nf_res_spec ff_R]. rewrite nf_round_0. repeat split; [destruct (lit_neg l); cbn; lra|apply bpow_gt_0].
  - assert (Hd : 0 < Z.of_N dv) by lia.
    destruct (Z.ltb_spec 400 k) as [Hk|Hk].
    + (* beyond 10^400 *)
      replace (0 <=? k) with true by lia. cbn [nf_res_spec]. apply nf_round_big.
      rewrite (nf_bpow_IZR 1024) by lia. apply IZR_le.
      apply Z.le_trans with (1 * 10 ^ k).
      * rewrite Z.mul_1_l. apply Z.lt_le_incl, pow2_lt_pow10; lia.
      * apply Z.mul_le_mono_nonneg_r; [apply Z.pow_nonneg|]; lia.
    + destruct (Z.ltb_spec (k + Z.of_nat (length ds)) (-400)) as [Hs|Hs].
      * (* below 10^-400 *)
        replace (0 <=? k) with false by lia.
        assert (Hx : nf_round (IZR (Z.of_N dv) / IZR (10 ^ (- k))) = 0%R).
        { apply nf_round_tiny.
          assert (P10 : 0 < 10 ^ (- k)) by (apply Z.pow_pos_nonneg; lia).
          assert (Hp : (0 < IZR (10 ^ (- k)))%R) by (apply IZR_lt; exact P10).
          split; [apply Rdiv_lt_0_compat; [apply IZR_lt; exact Hd|exact Hp]|].
          change (-1075) with (Z.opp 1075). rewrite bpow_opp, (nf_bpow_IZR 1075) by lia.
          assert (P2 : (0 < IZR (2 ^ 1075))%R) by (apply IZR_lt; reflexivity).
          apply (Rmult_lt_reg_r (IZR (10 ^ (- k)))); [exact Hp|]. unfold Rdiv. rewrite Rmult_assoc, Rinv_l, Rmult_1_r by lra.
          apply (Rmult_lt_reg_l (IZR (2 ^ 1075))); [exact P2|]. rewrite <- Rmult_assoc, Rinv_r, Rmult_1_l by lra.
          rewrite <- mult_IZR. apply IZR_lt.
          set (len := Z.of_nat (length ds)) in *.
          assert (Hlen : Z.of_N dv < 10 ^ len).
          { unfold len. rewrite <- nat_N_Z. change 10 with (Z.of_N 10). rewrite <- N2Z.inj_pow. lia. }
          replace (- k) with (- k - len + len) by lia. rewrite Z.pow_add_r by lia.
          apply Z.mul_lt_mono_nonneg; [apply Z.pow_nonneg; lia|apply pow2_lt_pow10; lia|lia|exact Hlen]. }
        cbn [nf_res_spec ff_R]. rewrite Hx. repeat split; [destruct (lit_neg l); cbn; lra|apply bpow_gt_0].
      * destruct (Z.leb_spec 0 k) as [Hk0|Hk0].
        -- assert (P10 : 0 < 10 ^ k) by (apply Z.pow_pos_nonneg; lia).
           pose proof (nf_round_ratio (lit_neg l) (Z.of_N dv * 10 ^ k) 1 ltac:(nia) ltac:(lia)) as R.
           unfold Rdiv in R. rewrite Rinv_1, Rmult_1_r in R. exact R.
        -- assert (P10 : 0 < 10 ^ (- k)) by (apply Z.pow_pos_nonneg; lia).
           exact (nf_round_ratio (lit_neg l) (Z.of_N dv) (10 ^ (- k)) Hd P10).
Qed.

(* the text of a literal: split_float accepts exactly  -? D+ (. D+)? (e [+-]? D+)?  and returns its pieces *)
Definition nf_text (l : float_lit) (esgn : bstr) : bstr :=
  ((if lit_neg l then [45%N] else []) ++ lit_int l
   ++ (match lit_frac l with [] => [] | f => 46%N :: f end)
   ++ (match lit_exp l with [] => [] | ex => 101%N :: esgn ++ ex end))%list.

Lemma nf_after_frac neg ip fp s3 l : split_after_frac neg ip fp s3 = Some l ->
  lit_neg l = neg /\ lit_int l = ip /\ lit_frac l = fp /\ nf_digits (lit_exp l) /\
  exists esgn, s3 = (match lit_exp l with [] => [] | ex => 101%N :: esgn ++ ex end) /\
               (esgn = [] \/ esgn = [43%N] \/ esgn = [45%N]) /\ (lit_eneg l = true -> esgn = [45%N]) /\
               (lit_exp l = [] -> lit_eneg l = false).
Proof.
  unfold split_after_frac. intros H. destruct s3 as [|c s4].
  - injection H as <-. cbn. repeat split; try constructor. exists []. repeat split; auto; discriminate.
  - destruct (N.eqb_spec c 101) as [->|Hne].
    + assert (E5 : exists eneg s5 esgn, match s4 with 43%N :: r => (false, r) | 45%N :: r => (true, r) | _ => (false, s4) end = (eneg, s5)
                     /\ s4 = (esgn ++ s5)%list /\ (esgn = [] \/ esgn = [43%N] \/ esgn = [45%N]) /\ (eneg = true -> esgn = [45%N])).
      { destruct s4 as [|c r]; [exists false, [], []; repeat split; auto; discriminate|].
        destruct (N.eqb_spec c 43) as [->|H43]; [exists false, r, [43%N]; repeat split; auto; discriminate|].
        destruct (N.eqb_spec c 45) as [->|H45]; [exists true, r, [45%N]; repeat split; auto|].
        exists false, (c :: r), []. repeat split; auto; try discriminate.
        destruct c as [|p]; [reflexivity|]. do 6 (try (destruct p as [p|p|]; try reflexivity; try congruence)). }
      destruct E5 as (eneg & s5 & esgn & E5 & Es4 & Hsg & Hen). rewrite E5 in H.
      destruct (span_digits s5) as [ex s6] eqn:E6. destruct (nf_span_digits _ _ _ E6) as [Es5 Hex].
      destruct ex as [|x ex]; [discriminate|]. destruct s6; [|discriminate].
      injection H as <-. cbn [lit_neg lit_int lit_frac lit_exp lit_eneg]. repeat split; auto.
      exists esgn. rewrite Es4, Es5, app_nil_r. repeat split; auto. discriminate.
    + exfalso. revert H. clear - Hne. destruct c as [|p]; [discriminate|].
      do 7 (try (destruct p as [p|p|]; try discriminate; try congruence)).
Qed.

Lemma nf_split_text s l : split_float s = Some l ->
  lit_int l <> [] /\ nf_digits (lit_int l) /\ nf_digits (lit_frac l) /\ nf_digits (lit_exp l) /\
  exists esgn, s = nf_text l esgn /\ (esgn = [] \/ esgn = [43%N] \/ esgn = [45%N]) /\
               (lit_eneg l = true -> esgn = [45%N]) /\ (lit_exp l = [] -> lit_eneg l = false).
Proof.
  rewrite split_float_unfold.
  assert (E0 : exists neg s1', match s with 45%N :: r => (true, r) | _ => (false, s) end = (neg, s1') /\
                 s = ((if neg then [45%N] else []) ++ s1')%list).
  { destruct s as [|c r]; [exists false, []; auto|]. destruct (N.eqb_spec c 45) as [->|Hne]; [exists true, r; auto|].
    exists false, (c :: r). split; [|reflexivity]. destruct c as [|p]; [reflexivity|].
    do 6 (try (destruct p as [p|p|]; try reflexivity; try congruence)). }
  destruct E0 as (neg & s1' & -> & Es). unfold split_rest.
  destruct (span_digits s1') as [ip s2] eqn:E1. destruct (nf_span_digits _ _ _ E1) as [Es1 Hip].
  destruct ip as [|i0 ip]; [discriminate|].
  assert (Hfin : forall fp s3, nf_digits fp -> s2 = ((match fp with [] => [] | f => 46%N :: f end) ++ s3)%list ->
     split_after_frac neg (i0 :: ip) fp s3 = Some l ->
     lit_int l <> [] /\ nf_digits (lit_int l) /\ nf_digits (lit_frac l) /\ nf_digits (lit_exp l) /\
     exists esgn, s = nf_text l esgn /\ (esgn = [] \/ esgn = [43%N] \/ esgn = [45%N]) /\
                  (lit_eneg l = true -> esgn = [45%N]) /\ (lit_exp l = [] -> lit_eneg l = false)).
  { intros fp s3 Hfp Es2 Haf. destruct (nf_after_frac _ _ _ _ _ Haf) as (Hn & Hi & Hf & Hx & esgn & Es3 & Hsg & Hen & Hz).
    rewrite Hi, Hf. repeat split; auto; [discriminate|]. exists esgn. repeat split; auto.
    unfold nf_text. rewrite Hn, Hi, Hf, Es, Es1, Es2, Es3. rewrite <- ?app_assoc. destruct fp; reflexivity. }
  destruct s2 as [|c s3].
  - apply (Hfin [] []); [constructor|reflexivity].
  - destruct (N.eqb_spec c 46) as [->|Hne].
    + destruct (span_digits s3) as [fp s4] eqn:E2. destruct (nf_span_digits _ _ _ E2) as [Es3 Hfp].
      destruct fp as [|f0 fp]; [discriminate|]. apply (Hfin (f0 :: fp) s4 Hfp). rewrite Es3. reflexivity.
    + intros H. apply (Hfin [] (c :: s3)); [constructor|reflexivity|].
      revert H. clear - Hne. destruct c as [|p]; [intros H; exact H|].
      do 7 (try (destruct p as [p|p|]; try (intros H; exact H); try congruence)).
Qed.

(* strconv.ParseFloat(s, 64) as the parser model computes it, on every text of the float syntax: the binary64
   nearest to the decimal value of the text (round to nearest, ties to even, subnormals included), ErrRange
   exactly when that rounding reaches 2^1024 *)
Theorem nf_parse_float_round s l : split_float s = Some l ->
  nf_res_spec (lit_neg l) (nf_lit_abs l) (parse_float_round s).
Proof.
  intros H. unfold parse_float_round. rewrite H. apply nf_float_of_lit. destruct (nf_split_text s l H) as (_ & Hi & Hf & _). apply Forall_app. split; assumption.
Qed.
Print Assumptions nf_parse_float_round.

(* the statement with the text in view: whenever the conversion does not answer FRSyntax, the text is the
   literal  sign int [. frac] [e esgn exp]  (digit strings, int non-empty) and the result is the correctly
   rounded binary64 of its decimal value *)
Theorem nf_parse_float_correctly_rounded s : parse_float_round s <> FRSyntax ->
  exists l esgn, s = nf_text l esgn /\ lit_int l <> [] /\ nf_digits (lit_int l) /\ nf_digits (lit_frac l) /\ nf_digits (lit_exp l) /\
    (esgn = [] \/ esgn = [43%N] \/ esgn = [45%N]) /\ (lit_eneg l = true -> esgn = [45%N]) /\
    nf_res_spec (lit_neg l) (nf_lit_abs l) (parse_float_round s).
Proof.
  intros Hs. destruct (split_float s) as [l|] eqn:E; [|exfalso; apply Hs; unfold parse_float_round; rewrite E; reflexivity].
  destruct (nf_split_text s l E) as (H1 & H2 & H3 & H4 & esgn & H5 & H6 & H7 & _).
  exists l, esgn. repeat split; auto. exact (nf_parse_float_round s l E).
Qed.

(* instances (the model computes; the theorem says what the value is) *)
Example nf_tenth : parse_float_round [48; 46; 49]%N = FRVal (FFin 3602879701896397 (-55)).
Proof. vm_compute. reflexivity. Qed.
Example nf_tenth_spec : ff_R (FFin 3602879701896397 (-55)) = nf_round (IZR 1 / IZR 10).
Proof.
  pose proof (nf_parse_float_round [48; 46; 49]%N _ eq_refl) as H. rewrite nf_tenth in H.
  destruct H as (H & _). exact H.
Qed.
(* 1e400 overflows; 5e-324 is the least subnormal; 2e-324 rounds to zero: from 2^1328 <= 10^400 < 2^1329 and
   2^1076 < 10^324 < 2^1077, without computing a power of ten *)
Lemma nf_pow_324 : 2 * 2 ^ 1075 < 10 ^ 324 < 4 * 2 ^ 1075.
Proof.
  split.
  - change 2 with (2 ^ 1) at 1. rewrite <- Z.pow_add_r by lia. apply pow2_lt_pow10; lia.
  - change 4 with (2 ^ 2). rewrite <- Z.pow_add_r by lia. apply pow10_lt_pow2; lia.
Qed.

(* n / 10^324 for a small n: the exponent is -1074 and the comparisons of rt_round_div are against 2^1075 *)
Lemma nf_tiny n K : 0 < n < 8 ->
  (2 * K - 1) * 10 ^ 324 < n * 2 ^ 1075 < (2 * K + 1) * 10 ^ 324 ->
  ratio_exp n (10 ^ 324) = -1074 /\ round_div_pow2 n (10 ^ 324) (-1074) = K.
Proof.
  intros Hn HK. assert (P : 0 < 10 ^ 324) by (apply Z.pow_pos_nonneg; [reflexivity|discriminate]). split.
  - apply rt_ratio_exp_sub; [apply Hn|exact P|]. clear HK P.
    assert (H8 : 8 <= 2 ^ 54) by (change 8 with (2 ^ 3); apply Z.pow_le_mono_r; lia).
    assert (HA : 0 < 2 ^ 1021) by (apply Z.pow_pos_nonneg; lia).
    pose proof nf_pow_324 as B. replace 1075 with (54 + 1021) in B by reflexivity. rewrite Z.pow_add_r in B by discriminate.
    revert H8 HA B. generalize (2 ^ 54) (2 ^ 1021) (10 ^ 324). intros C A D H8 HA B. nia.
  - apply rt_round_div; [exact P|apply Z.lt_le_incl, Hn| |]; clear P; unfold rt_cmp, rt_P2, rt_N2;
      rewrite rt_up_nonneg, rt_up_nonpos, Z.mul_1_r by (clear; lia); change (- (-1074 - 1)) with 1075.
    + replace (n * 2 ^ 1075 ?= (2 * K - 1) * 10 ^ 324) with Gt; [destruct (Z.even K); reflexivity|].
      symmetry. apply Z.compare_gt_iff. exact (proj1 HK).
    + replace (n * 2 ^ 1075 ?= (2 * K + 1) * 10 ^ 324) with Lt; [destruct (Z.even K); reflexivity|].
      symmetry. apply Z.compare_lt_iff. exact (proj2 HK).
Qed.

Example nf_overflow : parse_float_round [49; 101; 52; 48; 48]%N = FRRange.
Proof.
  unfold parse_float_round.
  replace (split_float [49; 101; 52; 48; 48]%N) with (Some {| lit_neg := false; lit_int := [49%N]; lit_frac := []; lit_eneg := false; lit_exp := [52; 48; 48]%N |}) by (vm_compute; reflexivity).
  rewrite (FloatRtText.rt_lit_round _ 1%N 400) by (vm_compute; (reflexivity || discriminate || (split; discriminate))).
  change (0 <=? 400) with true. cbv iota. cbn [lit_neg]. change (Z.of_N 1) with 1. rewrite Z.mul_1_l.
  assert (P : 0 < 10 ^ 400) by (apply Z.pow_pos_nonneg; lia).
  apply (rt_round_overflow false _ 1 1276 P); clear P; [reflexivity|discriminate| |];
    unfold rt_cmp, rt_P2, rt_N2; rewrite rt_up_nonpos, rt_up_nonneg, !Z.mul_1_r by lia.
  - rewrite <- Z.pow_add_r by lia. apply Z.compare_ge_iff, Z.lt_le_incl, pow2_lt_pow10; lia.
  - rewrite <- Z.pow_add_r by lia. apply Z.compare_lt_iff, pow10_lt_pow2; lia.
Qed.
Example nf_subnormal : parse_float_round [53; 101; 45; 51; 50; 52]%N = FRVal (FFin 1 (-1074)).
Proof.
  unfold parse_float_round.
  replace (split_float [53; 101; 45; 51; 50; 52]%N) with (Some {| lit_neg := false; lit_int := [53%N]; lit_frac := []; lit_eneg := true; lit_exp := [51; 50; 52]%N |}) by (vm_compute; reflexivity).
  rewrite (FloatRtText.rt_lit_round _ 5%N (-324)) by (vm_compute; (reflexivity || discriminate || (split; discriminate))).
  change (0 <=? -324) with false. cbv iota. cbn [lit_neg]. change (Z.of_N 5) with 5. change (- -324) with 324.
  assert (B : (2 * 1 - 1) * 10 ^ 324 < 5 * 2 ^ 1075 < (2 * 1 + 1) * 10 ^ 324) by (generalize nf_pow_324; generalize (10 ^ 324) (2 ^ 1075); lia).
  destruct (nf_tiny 5 1 (conj eq_refl eq_refl) B) as [Ee EK]. clear B.
  pose proof (round_ratio_pow2 false 5 (10 ^ 324) 1 0 Logic.I (Z.le_refl 0)) as R. rewrite Ee in R. exact (R EK eq_refl).
Qed.
Example nf_underflow : parse_float_round [50; 101; 45; 51; 50; 52]%N = FRVal (FZero false).
Proof.
  unfold parse_float_round.
  replace (split_float [50; 101; 45; 51; 50; 52]%N) with (Some {| lit_neg := false; lit_int := [50%N]; lit_frac := []; lit_eneg := true; lit_exp := [51; 50; 52]%N |}) by (vm_compute; reflexivity).
  rewrite (FloatRtText.rt_lit_round _ 2%N (-324)) by (vm_compute; (reflexivity || discriminate || (split; discriminate))).
  change (0 <=? -324) with false. cbv iota. cbn [lit_neg]. change (Z.of_N 2) with 2. change (- -324) with 324.
  assert (B : (2 * 0 - 1) * 10 ^ 324 < 2 * 2 ^ 1075 < (2 * 0 + 1) * 10 ^ 324) by (generalize nf_pow_324; generalize (10 ^ 324) (2 ^ 1075); lia).
  destruct (nf_tiny 2 0 (conj eq_refl eq_refl) B) as [Ee EK]. clear B.
  apply rt_round_zero. rewrite Ee. exact EK.
Qed.
