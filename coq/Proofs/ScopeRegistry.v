(* C02, call names, part 2 (registry): after Bundle.Compile's loop over the files
   (Model/Compile.v add_all_files = parse + Registry.Add per file), looking a
   name up finds exactly the template a {template} tag with that name declares --
   its body without the header params, under the autoescape mode of the
   namespace of ITS file -- and nothing else; so a {call} whose resolved name is
   that name runs that body (Spec/Cmd.v, case NCall). *)
From Soy Require Import Model.Bytes Model.Num Model.Values Model.Outcome Model.Ast Model.Escape Model.Interp Model.Compile
  Spec.Cmd Proofs.CompilePermProofs Proofs.ScopeSpecProofs.
Open Scope N_scope.

(* the node before position |l1| of a body, [prev] before the body *)
Definition prev_of (prev : option node) (l1 : list node) : option node :=
  match rev l1 with [] => prev | a :: _ => Some a end.

Lemma prev_of_cons prev a l : prev_of prev (a :: l) = prev_of (Some a) l.
Proof. unfold prev_of. cbn [rev]. destruct (rev l) as [|x r]; reflexivity. Qed.

Lemma file_units_in fname ns ae body : forall prev x,
  In x (file_units fname ns ae prev body) <->
  exists l1 tn l2, body = l1 ++ tn :: l2 /\ is_template tn = true /\
                   x = template_local fname ns ae (prev_of prev l1) tn.
Proof.
  induction body as [|n r IH]; intros prev x; cbn [file_units].
  - split; [intros [] | intros (l1 & tn & l2 & H & _); destruct l1; discriminate].
  - rewrite in_app_iff, IH. split.
    + intros [H|(l1 & tn & l2 & -> & Ht & ->)].
      * destruct (is_template n) eqn:Et; [|destruct H]. destruct H as [<-|[]].
        exists [], n, r. repeat split; assumption.
      * exists (n :: l1), tn, l2. rewrite prev_of_cons. repeat split; assumption.
    + intros (l1 & tn & l2 & Hb & Ht & ->). destruct l1 as [|a l1]; cbn [app] in Hb; injection Hb as -> ->.
      * left. rewrite Ht. left. reflexivity.
      * right. exists l1, tn, l2. rewrite prev_of_cons. repeat split; assumption.
Qed.

Lemma units_ok_in us l : units_ok us = Some l -> forall u, In u l <-> In (inr u) us.
Proof.
  revert l. induction us as [|[e|u0] r IH]; cbn [units_ok]; intros l H u.
  - injection H as <-. split; intros [].
  - discriminate.
  - destruct (units_ok r) as [l'|]; [|discriminate]. injection H as <-. cbn [In]. rewrite (IH l' eq_refl u).
    split; intros [E|E]; auto; [left; congruence | left; congruence].
Qed.

(* what Registry.Add derives from one {template} node *)
Lemma template_local_spec fname ns nsae prev tn u :
  template_local fname ns nsae prev tn = inr u ->
  exists p name lp nodes ae priv pv,
    tn = NTemplate p name (NList lp nodes) ae priv /\ prev = Some pv /\
    tu_template u =
      {| t_name := name; t_node := NTemplate p name (NList lp (snd (span_headers nodes))) ae priv;
         t_ns_name := ns; t_ns_autoescape := nsae;
         t_params := flat_map docparam_sig
                       ((match pv with NSoyDoc _ ps => ps | _ => [] end) ++ map header_to_docparam (fst (span_headers nodes)));
         t_file := fname |}.
Proof.
  unfold template_local. destruct tn; try discriminate. destruct tn; try discriminate.
  destruct prev as [pv|]; [|discriminate].
  destruct (span_headers nodes) as [hs rest] eqn:Es. intros H.
  exists p, name, p0, nodes, autoescape, private, pv. rewrite Es. cbn [fst snd].
  split; [reflexivity|]. split; [reflexivity|].
  destruct hs as [|h hs]; [|destruct (match pv with NSoyDoc _ ps => ps | _ => [] end) as [|d ds] eqn:Ed; [|discriminate]];
    injection H as <-; reflexivity.
Qed.

(* the templates of a file whose own processing succeeds *)
Lemma file_ts_in f t : file_result f <> None ->
  (In t (file_ts f) <->
   exists ns nsae l1 tn l2 u,
     find_namespace (sfile_body f) = inr (ns, nsae) /\ sfile_body f = l1 ++ tn :: l2 /\ is_template tn = true /\
     template_local (sfile_name f) ns nsae (prev_of None l1) tn = inr u /\ t = tu_template u).
Proof.
  unfold file_ts, file_result. intros Hr.
  destruct (find_namespace (sfile_body f)) as [e|[ns nsae]]; [contradiction|].
  destruct (units_ok _) as [l|] eqn:El; [|contradiction]. rewrite in_map_iff. split.
  - intros (u & <- & Hu). apply (units_ok_in _ _ El) in Hu. apply file_units_in in Hu.
    destruct Hu as (l1 & tn & l2 & Hb & Ht & Hx). exists ns, nsae, l1, tn, l2, u. repeat split; auto.
  - intros (ns' & nsae' & l1 & tn & l2 & u & [= <- <-] & Hb & Ht & Hx & ->). exists u. split; [reflexivity|].
    apply (units_ok_in _ _ El). apply file_units_in. exists l1, tn, l2. repeat split; auto.
Qed.

Section Registry.
Variable srcs : list src.
Variable r : creg.
Hypothesis Hadd : add_all_files empty_creg srcs = COk r.

Lemma registry_inv :
  exists fs, srcs = map SrcOk fs /\ (forall f, In f fs -> file_result f <> None) /\ NoDup (map t_name (all_ts fs)) /\
    forall name t, find_template (r_templates (cr_reg r)) name = Some t <-> (In t (all_ts fs) /\ t_name t = name).
Proof.
  destruct (add_files_parsed _ _ _ Hadd) as (fs & Hs). exists fs. split; [exact Hs|].
  rewrite Hs in Hadd. apply add_files_ok in Hadd; [|apply reg_inv_empty].
  destruct Hadd as ((Hall & Hnd & _) & ->). split; [exact (proj1 (Forall_forall _ _) Hall)|]. split; [exact Hnd|].
  intros name t. rewrite big_extend_templates, find_template_assoc. split.
  - intros H. apply assoc_s_Some_In in H. apply in_map_iff in H. destruct H as (t' & E & Hin).
    unfold template_entry in E. injection E as <- <-. split; [exact Hin | reflexivity].
  - intros [Hin <-]. apply assoc_s_In_NoDup; [rewrite map_fst_entries; exact Hnd|].
    apply in_map_iff. exists t. split; [reflexivity | exact Hin].
Qed.

(* the lookup finds a template iff a file of the bundle yields it; names are unique *)
Theorem registry_lookup_exact :
  exists fs, srcs = map SrcOk fs /\ NoDup (map t_name (all_ts fs)) /\
    forall name t, find_template (r_templates (cr_reg r)) name = Some t <-> (In t (all_ts fs) /\ t_name t = name).
Proof. destruct registry_inv as (fs & Hs & _ & H). exists fs. split; [exact Hs | exact H]. Qed.

(* a {template} tag of a file of the bundle: the lookup of its name finds its body (header params taken out),
   with the namespace and the autoescape mode of that file *)
Theorem declared_template_found f l1 p name body ae priv l2 :
  In (SrcOk f) srcs -> sfile_body f = l1 ++ NTemplate p name body ae priv :: l2 ->
  exists t lp nodes,
    body = NList lp nodes /\
    find_template (r_templates (cr_reg r)) name = Some t /\
    t_name t = name /\ t_node t = NTemplate p name (NList lp (snd (span_headers nodes))) ae priv /\
    find_namespace (sfile_body f) = inr (t_ns_name t, t_ns_autoescape t) /\ t_file t = sfile_name f.
Proof.
  intros Hf Hb. destruct registry_inv as (fs & Hs & Hall & Hnd & Hlook).
  rewrite Hs in Hf. apply in_map_iff in Hf. destruct Hf as (f' & [= ->] & Hf). specialize (Hall f Hf).
  (* the unit of this template node *)
  pose proof Hall as Hres. unfold file_result in Hres.
  destruct (find_namespace (sfile_body f)) as [e|[ns nsae]] eqn:En; [contradiction|].
  destruct (units_ok _) as [l|] eqn:El; [|contradiction]. clear Hres.
  destruct (template_local (sfile_name f) ns nsae (prev_of None l1) (NTemplate p name body ae priv)) as [e|u] eqn:Eu.
  { exfalso. assert (Hin : In (inl e) (file_units (sfile_name f) ns nsae None (sfile_body f))).
    { apply file_units_in. exists l1, (NTemplate p name body ae priv), l2. repeat split; [exact Hb | symmetry; exact Eu]. }
    clear - El Hin. revert l El. induction (file_units _ _ _ _ _) as [|[e'|u'] us IH]; intros l El; cbn [units_ok] in El; [destruct Hin | discriminate|].
    destruct (units_ok us) as [l'|]; [|discriminate]. destruct Hin as [Hx|Hx]; [discriminate | exact (IH Hx l' eq_refl)]. }
  destruct (template_local_spec _ _ _ _ _ _ Eu) as (p' & name' & lp & nodes & ae' & priv' & pv & Etn & _ & Et).
  injection Etn as <- <- -> <- <-.
  assert (Hin : In (tu_template u) (all_ts fs)).
  { unfold all_ts. apply in_flat_map. exists f. split; [exact Hf|]. apply file_ts_in; [exact Hall|].
    exists ns, nsae, l1, (NTemplate p name (NList lp nodes) ae priv), l2, u. repeat split; assumption. }
  exists (tu_template u), lp, nodes. split; [reflexivity|].
  split; [apply Hlook; split; [exact Hin | rewrite Et; reflexivity]|].
  rewrite Et. cbn. repeat split; reflexivity.
Qed.

(* conversely: whatever the lookup finds was declared by a {template} tag of a file of the bundle *)
Theorem found_template_declared name t :
  find_template (r_templates (cr_reg r)) name = Some t ->
  exists f l1 p lp nodes ae priv l2,
    In (SrcOk f) srcs /\ sfile_body f = l1 ++ NTemplate p name (NList lp nodes) ae priv :: l2 /\
    t_node t = NTemplate p name (NList lp (snd (span_headers nodes))) ae priv /\
    find_namespace (sfile_body f) = inr (t_ns_name t, t_ns_autoescape t) /\ t_file t = sfile_name f.
Proof.
  intros H. destruct registry_inv as (fs & Hs & Hall & Hnd & Hlook).
  apply Hlook in H. destruct H as [Hin Hname].
  unfold all_ts in Hin. apply in_flat_map in Hin. destruct Hin as (f & Hf & Hin).
  apply file_ts_in in Hin; [|exact (Hall f Hf)].
  destruct Hin as (ns & nsae & l1 & tn & l2 & u & En & Hb & Ht & Eu & ->).
  destruct (template_local_spec _ _ _ _ _ _ Eu) as (p & name' & lp & nodes & ae & priv & pv & -> & _ & Et).
  rewrite Et in Hname. cbn in Hname. subst name'.
  exists f, l1, p, lp, nodes, ae, priv, l2. rewrite Et. cbn.
  split; [rewrite Hs; apply in_map; exact Hf|]. repeat split; assumption.
Qed.
End Registry.

(* ---- with the command semantics: a call whose (resolved) name is that of a declared template runs
        that template's body, in the callee environment, under the autoescape mode of the callee's file ---- *)
Theorem call_runs_declared_template cf srcs r f l1 p name body ae priv l2 l entry md en pc alldata dat params :
  add_all_files empty_creg srcs = COk r -> c_reg cf = cr_reg r ->
  In (SrcOk f) srcs -> sfile_body f = l1 ++ NTemplate p name body ae priv :: l2 ->
  exists lp nodes ns nsae,
    body = NList lp nodes /\ find_namespace (sfile_body f) = inr (ns, nsae) /\
    exec_body cf l entry md en (NCall pc name alldata dat params) =
    (base <~~ base_spec l entry en alldata dat ;;
     ps <~~ params_spec l entry md en params [] ;;
     l_exec l (ps ++ base) (ps ++ base) (call_mode nsae)
            (NTemplate p name (NList lp (snd (span_headers nodes))) ae priv)).
Proof.
  intros Hadd Hreg Hf Hb.
  destruct (declared_template_found srcs r Hadd f l1 p name body ae priv l2 Hf Hb)
    as (t & lp & nodes & -> & Hfind & _ & Hnode & Hns & _).
  exists lp, nodes, (t_ns_name t), (t_ns_autoescape t). split; [reflexivity|]. split; [exact Hns|].
  rewrite <- Hreg in Hfind. rewrite (ScopeSpecProofs.callee_env_exact cf l entry md en pc name alldata dat params t Hfind), Hnode.
  reflexivity.
Qed.
