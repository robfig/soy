(* Source tie, family 75-gotrans-soymsg, the PO part (soymsg/pomsg/pomsg.go): `translated`
   of the bundle loader model (Model/MsgParts.v) against the function as gotrans translates
   it from the source of the tree under check. *)
From Coq Require Import ZArith NArith Bool Lia ZifyBool List.
From Soy Require Import Model.Bytes Generated.Tables Model.MsgParts Proofs.SourceTieBase.
Import ListNotations.
Open Scope N_scope.

(* Stated through go_res and proved along the MODEL's recursion, one msgstr at a time with its emptiness decided on the
   model's side: the source may test `s != ""`, `len(s) > 0`, range over values or over indices, return early or keep
   a flag. *)
Lemma is_translated_matches_source (strs : list bstr) :
  go_res (src_pomsg_translated strs) = Some (is_translated strs).
Proof.
  unfold go_res, is_translated, src_pomsg_translated. cbv zeta.
  induction strs as [|a l IH]; [reflexivity|].
  destruct a as [|c r]; simpl; unfold go_len; cbn [length]; st_decide_ifs; cbn [negb]; [exact IH|reflexivity].
Qed.
