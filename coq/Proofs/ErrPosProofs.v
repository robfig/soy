(* C19, render half: where the tree walker's error position points.

   Models: Model/Interp.v ([cur] = s.node of the entry state, [render]'s rr_file /
   rr_line = errRecover -> errFromNode -> Registry.Filename / LineNumber).
   Spec: Spec/ErrPos.v.  Tools: Proofs/InterpLogic.v (frame invariant through
   [inv_walk]) and Proofs/WalkRel.v (relational, node-indexed principle). *)
From Soy Require Import Model.Bytes Model.Num Model.Values Model.Outcome Model.Ast
  Model.Escape Model.Directives Model.Print Generated.Tables Model.Interp Spec.ErrPos Proofs.InterpLogic Proofs.WalkRel.
Require Import Lia.
Open Scope N_scope.

Lemma in_opt_poss c (o : option node) p :
  In c (opt_list o) -> In p (poss c) -> In p (match o with Some x => poss x | None => [] end).
Proof. destruct o; cbn; [intros [<-|[]] H; exact H | intros []]. Qed.

(* the positions of a node are its own and those of its immediate sub-nodes *)
Lemma poss_children n : poss n = pos_of n :: flat_map poss (children n).
Proof.
  destruct n; cbn [poss children]; f_equal; repeat match goal with o : option node |- _ => destruct o end;
    cbn [flat_map opt_list app]; rewrite ?flat_map_app; cbn [flat_map]; rewrite ?app_nil_r; try reflexivity.
  induction items as [|[k e] r IH]; cbn [map snd flat_map]; [reflexivity | rewrite IH; reflexivity].
Qed.

Lemma poss_self n : In (pos_of n) (poss n).
Proof. rewrite poss_children. left. reflexivity. Qed.

Lemma poss_child n c p : In c (children n) -> In p (poss c) -> In p (poss n).
Proof. intros Hc Hp. rewrite poss_children. right. apply in_flat_map. exists c. split; assumption. Qed.

(* ------------------------------------------------------------------ *)
(* (A) the frame: a walk returns at the call depth it started at, and does not
   touch the position register unless it runs in the entry template (depth 0) *)
Definition frameR (a b : mstate) : Prop :=
  depth_ b = depth_ a /\ (depth_ a <> 0%nat -> cur b = cur a).

Lemma frameR_refl a : frameR a a.
Proof. split; auto. Qed.
Lemma frameR_trans a b c : frameR a b -> frameR b c -> frameR a c.
Proof. intros [H1 H2] [H3 H4]. split; [congruence|]. intros H. rewrite H4, H2; auto. congruence. Qed.
Lemma frameR_neutral {A} (m : M A) st r st' : neutral m -> m st = (r, st') -> frameR st st'.
Proof. intros Hn H. destruct (Hn _ _ _ H) as [H1 H2]. split; auto. Qed.
Lemma cur_set_cur st p : cur (set_cur st p) = if Nat.eqb (depth_ st) 0 then p else cur st.
Proof. reflexivity. Qed.
Lemma depth_set_cur st p : depth_ (set_cur st p) = depth_ st.
Proof. reflexivity. Qed.
Lemma frameR_set_cur st p : frameR st (set_cur st p).
Proof.
  split; [reflexivity|]. intros H. rewrite cur_set_cur. destruct (Nat.eqb_spec (depth_ st) 0); [contradiction | reflexivity].
Qed.

Lemma frameR_same a b : depth_ b = depth_ a -> cur b = cur a -> frameR a b.
Proof. intros H1 H2. split; auto. Qed.

Lemma frame_conditions : inv_conditions (fun _ => True) frameR frameR (fun _ => True).
Proof.
  constructor.
  - intros; apply frameR_refl.
  - intros; eapply frameR_trans; eassumption.
  - intros; apply frameR_refl.
  - intros; eapply frameR_trans; eassumption.
  - intros; exact Logic.I.
  - intros; split; [exact Logic.I | apply frameR_set_cur].
  - intros; split; [exact Logic.I | apply frameR_same; reflexivity].
  - intros; split; [exact Logic.I | eapply frameR_neutral; [apply neutral_write | eassumption]].
  - intros; eapply frameR_neutral; [apply neutral_write | eassumption].
  - intros; split; [exact Logic.I | eapply frameR_neutral; [apply neutral_m_set | eassumption]].
  - intros; split; [exact Logic.I | apply frameR_same; reflexivity].
  - intros; split; [exact Logic.I | apply frameR_same; reflexivity].
  - intros; exact Logic.I.
  - intros st st2 _ _ [H1 H2]. split; [exact Logic.I | split; [exact H1 | exact H2]].
  - intros st st2 _ [H1 H2]. split; [exact H1 | exact H2].
  - intros; exact Logic.I.
  - intros st st2 buf rest _ _ [H1 H2] _. split; [exact Logic.I | split; [exact H1 | exact H2]].
  - intros st st2 _ _ [H1 H2] _. split; [exact H1 | exact H2].
  - intros st st2 _ [H1 H2]. split; [exact H1 | exact H2].
  - intros; exact Logic.I.
  - intros st callee cd st2 _ _ [H1 H2]. split; [exact Logic.I|].
    split; [reflexivity|]. intros Hd. change (cur (left st st2)) with (cur st2). rewrite H2; [reflexivity | cbn; discriminate].
  - intros st callee cd st2 _ [H1 H2].
    split; [reflexivity|]. intros Hd. change (cur (left st st2)) with (cur st2). rewrite H2; [reflexivity | cbn; discriminate].
Qed.

Theorem walk_frame cf fuel n st r st' : walk cf fuel n st = (r, st') -> frameR st st'.
Proof.
  intros H.
  pose proof (inv_walk _ _ _ _ frame_conditions cf pure_sites_any fuel n st r st' Logic.I H) as H1.
  destruct (classify r); destruct H1; assumption.
Qed.

(* while a callee runs the position register is frozen, and the depth is back afterwards *)
Lemma call_enter_frame cf fuel callee cd st r st' :
  call_enter (walk cf fuel) callee cd st = (r, st') -> depth_ st' = depth_ st /\ cur st' = cur st.
Proof.
  intros H. rewrite call_enter_eq in H. cbn zeta in H. inversion H; subst. split; [reflexivity|].
  change (cur (left st (snd (walk cf fuel (t_node callee) (entered st callee cd)))))
    with (cur (snd (walk cf fuel (t_node callee) (entered st callee cd)))).
  destruct (walk cf fuel (t_node callee) (entered st callee cd)) as [r1 s2] eqn:Hrun.
  destruct (walk_frame _ _ _ _ _ _ Hrun) as [_ Hc]. cbn [snd]. rewrite Hc; [reflexivity | cbn; discriminate].
Qed.

(* ------------------------------------------------------------------ *)
(* (B) containment: walking a node whose positions all satisfy S keeps the register in S *)
Section Contain.
Variable cf : cfg.
Variable S : N -> Prop.

Definition okn (n : node) : Prop := forall p, In p (poss n) -> S p.

Lemma okn_children n : okn n -> Forall okn (children n).
Proof. intros H. apply Forall_forall. intros c Hc p Hp. apply H. eapply poss_child; eauto. Qed.
Lemma okn_synth mp id me de body l : okn (NMsg mp id me de body) -> Forall okn l -> okn (NMsg mp 0 [] [] l).
Proof.
  intros H Hl p Hp. cbn [poss pos_of] in Hp. destruct Hp as [<-|Hp]; [apply H; left; reflexivity|].
  apply in_flat_map in Hp. destruct Hp as (c & Hc & Hp). rewrite Forall_forall in Hl. exact (Hl c Hc p Hp).
Qed.
Lemma okn_pos n : okn n -> S (pos_of n).
Proof. intros H. apply H. apply poss_self. Qed.

Definition K {A} (m : M A) : Prop :=
  forall st r st', m st = (r, st') -> depth_ st' = depth_ st /\ (S (cur st) -> S (cur st')).
Definition PhiK (A : Type) (m m' : M A) : Prop := K m.

Lemma K_logic : rel_logic PhiK okn.
Proof.
  constructor; unfold PhiK.
  - intros A m Hn st r st' H. destruct (Hn _ _ _ H) as [H1 H2]. split; [exact H1 | rewrite H2; auto].
  - intros A B m _ f _ Hm Hf st r st2 Hb.
    destruct (mbind_inv _ _ _ _ _ Hb) as [(x & st1 & H1 & H2) | (e & H1 & ->)].
    + destruct (Hm _ _ _ H1) as [Hd Hc]. destruct (Hf x _ _ _ H2) as [Hd2 Hc2]. split; [congruence | auto].
    + eapply Hm; eauto.
  - intros B f _ Hf st r st' H. change (mbind get f st) with (f st st) in H. eapply Hf; eauto.
  - intros n Hq st r st' H. inversion H; subst. split; [reflexivity|]. intros Hs.
    rewrite cur_set_cur. destruct (Nat.eqb (depth_ st) 0); [apply okn_pos; exact Hq | exact Hs].
  - intros w _ e Hw st r st' H. rewrite eval_eq in H.
    destruct (w e st) as [r1 st2] eqn:Hrun. cbn [fst snd] in H. destruct (Hw _ _ _ Hrun) as [Hd Hc].
    destruct (classify r1); inversion H; subst.
    + split; [exact Hd|]. intros Hs. rewrite cur_set_cur. destruct (Nat.eqb (depth_ st2) 0); auto.
    + split; auto.
Qed.

Theorem contain_walk fuel : forall n, okn n -> K (walk cf fuel n).
Proof.
  induction fuel as [|f IH]; intros n Hq.
  - rewrite walk_O. intros st r st' H. inversion H; subst. split; auto.
  - rewrite walk_S.
    apply (rel_walk_body cf PhiK okn K_logic okn_children okn_synth (walk cf f) (walk cf f)); [exact IH | | exact Hq].
    intros callee cd st r st' H. destruct (call_enter_frame _ _ _ _ _ _ _ H) as [H1 H2].
    split; [exact H1 | rewrite H2; auto].
Qed.
End Contain.

(* the position register after a walk in the entry template is the position of a node of the walked tree *)
Theorem walk_position_in_subtree cf fuel n st r st' :
  depth_ st = 0%nat -> walk cf (Datatypes.S fuel) n st = (r, st') -> In (cur st') (poss n).
Proof.
  intros Hd H.
  (* the walk sets the register to pos_of n first: it may as well start there, where containment applies *)
  assert (H' : walk cf (Datatypes.S fuel) n (set_cur st (pos_of n)) = (r, st')).
  { rewrite <- H. change (walk_node cf (walk cf fuel) n (set_cur (set_cur st (pos_of n)) (pos_of n))
                         = walk_node cf (walk cf fuel) n (set_cur st (pos_of n))).
    f_equal. unfold set_cur. cbn. destruct (Nat.eqb (depth_ st) 0); reflexivity. }
  apply (contain_walk cf (fun p => In p (poss n)) (Datatypes.S fuel) n (fun p Hp => Hp) _ _ _ H').
  rewrite cur_set_cur, Hd. apply poss_self.
Qed.

(* ------------------------------------------------------------------ *)
(* positions and syntactic occurrence *)
Lemma poss_inv n p : In p (poss n) -> p = pos_of n \/ exists c, In c (children n) /\ In p (poss c).
Proof.
  rewrite poss_children. intros [<-|H]; [left; reflexivity|right]. apply in_flat_map in H. exact H.
Qed.

Lemma length_flat_member {A B} (f : A -> list B) c l : In c l -> (length (f c) <= length (flat_map f l))%nat.
Proof.
  induction l as [|x r IH]; [intros []|]. intros [->|H]; cbn [flat_map]; rewrite app_length; [lia|].
  specialize (IH H). lia.
Qed.

Lemma poss_child_shorter n c : In c (children n) -> (length (poss c) < length (poss n))%nat.
Proof.
  intros Hc. rewrite (poss_children n). pose proof (length_flat_member poss c _ Hc). cbn [length]. lia.
Qed.

(* every position of [poss n] is the position of a node that occurs in n *)
Theorem poss_subnode n p : In p (poss n) -> exists m, subnode m n /\ pos_of m = p.
Proof.
  remember (length (poss n)) as k eqn:Hk. revert n Hk p.
  induction k as [k IH] using lt_wf_ind. intros n Hk p Hp.
  destruct (poss_inv _ _ Hp) as [-> | (c & Hc & Hpc)].
  - exists n. split; [apply sub_refl | reflexivity].
  - pose proof (poss_child_shorter _ _ Hc) as Hlt.
    destruct (IH (length (poss c)) ltac:(lia) c eq_refl p Hpc) as (m & Hm & Hpm).
    exists m. split; [eapply sub_child; eauto | exact Hpm].
Qed.

Lemma subnode_poss m n : subnode m n -> In (pos_of m) (poss n).
Proof.
  induction 1 as [n | m c n _ IH Hc]; [apply poss_self | eapply poss_child; eauto].
Qed.

(* ------------------------------------------------------------------ *)
(* lines *)
Lemma count_nl_take k s : count_nl (take k s) <= count_nl s.
Proof.
  revert s. induction k as [|k IH]; intros s; cbn [take]; [cbn; lia|].
  destruct s as [|c r]; [cbn; lia|]. cbn [count_nl]. specialize (IH r). lia.
Qed.

Lemma line_at_bounds src p : 1 <= line_at src p <= lines src.
Proof. unfold line_at, lines. pose proof (count_nl_take (N.to_nat p) src). lia. Qed.

Lemma line_number_inside src p : p <= N.of_nat (length src) -> line_number src p = Some (line_at src p).
Proof. intros H. unfold line_number. apply N.leb_le in H. rewrite H. reflexivity. Qed.

Lemma positions_in_sourceb_ok src n : positions_in_sourceb src n = true -> positions_in_source src n.
Proof.
  unfold positions_in_sourceb, positions_in_source. intros H. apply Forall_forall. intros p Hp.
  rewrite forallb_forall in H. apply N.leb_le. apply H. exact Hp.
Qed.

(* ------------------------------------------------------------------ *)
(* render *)
Section Render.
Variables (cf : cfg) (fuel : nat) (name : bstr) (did : N) (dat : list (bstr * value))
          (cl : option nat) (bl : option N) (fid : N).
Let res := render cf fuel name did dat cl bl fid.

(* the entry template, and what Registry.Add recorded under its name *)
Variables (t : template) (src file : bstr).
Hypothesis Hfind : find_template (r_templates (c_reg cf)) name = Some t.
Hypothesis Hsrc : assoc_s name (r_sources (c_reg cf)) = Some src.
Hypothesis Hfile : assoc_s name (r_files (c_reg cf)) = Some file.

Let st0 := init_state (sc_enter (new_scope did dat)) (entry_mode (t_ns_autoescape t)) name cl bl fid.

Lemma render_unfold :
  res = let '(r, st) := walk cf fuel (t_node t) st0 in
        let mk o f l := {| rr_outcome := o; rr_writes := rev (out st); rr_file := f; rr_line := l;
                           rr_unbound := unbound st; rr_shared_writes := shared_writes st |} in
        match r with
        | Ok _ => mk (Ok tt) [] 0
        | Err m => match line_number src (cur st) with
                   | Some l => mk (Err m) file l
                   | None => mk (Crash e_index) [] 0
                   end
        | Crash m => mk (Crash m) [] 0
        | Diverge => mk Diverge [] 0
        | OutOfFuel => mk OutOfFuel [] 0
        | OutOfModel => mk OutOfModel [] 0
        end.
Proof.
  unfold res, render. rewrite Hfind. fold st0. destruct (walk cf fuel (t_node t) st0) as [r st].
  rewrite Hsrc, Hfile. reflexivity.
Qed.

(* the file is the one recorded for the entry template, whatever the call depth of the failure *)
Theorem render_error_file_lemma m : rr_outcome res = Err m -> rr_file res = file.
Proof.
  rewrite render_unfold. destruct (walk cf fuel (t_node t) st0) as [r st].
  destruct r; cbn; try discriminate.
  destruct (line_number src (cur st)); cbn; [reflexivity | discriminate].
Qed.

Hypothesis Hpos : positions_in_source src (t_node t).

(* the walk's error, if any, is what render reports, with the line of a node of the entry template *)
Theorem render_error_in_entry_template_lemma :
  (forall m, fst (walk cf fuel (t_node t) st0) = Err m ->
     rr_outcome res = Err m /\ rr_file res = file /\
     exists n, subnode n (t_node t) /\ cur (snd (walk cf fuel (t_node t) st0)) = pos_of n /\
               rr_line res = line_at src (pos_of n) /\ 1 <= rr_line res <= lines src)
  /\ (forall m, rr_outcome res = Err m -> fst (walk cf fuel (t_node t) st0) = Err m)
  /\ (forall c, rr_outcome res = Crash c -> fst (walk cf fuel (t_node t) st0) = Crash c).
Proof.
  rewrite render_unfold. destruct (walk cf fuel (t_node t) st0) as [r st] eqn:Hrun. cbn [fst snd].
  assert (Hin : forall m, r = Err m ->
            In (cur st) (poss (t_node t)) /\ line_number src (cur st) = Some (line_at src (cur st))).
  { intros m ->. destruct fuel as [|f]; [rewrite walk_O in Hrun; inversion Hrun|].
    assert (Hp : In (cur st) (poss (t_node t))) by (eapply walk_position_in_subtree; [|exact Hrun]; reflexivity).
    split; [exact Hp|]. apply line_number_inside.
    unfold positions_in_source in Hpos. rewrite Forall_forall in Hpos. apply Hpos. exact Hp. }
  split; [|split].
  - intros m ->. destruct (Hin m eq_refl) as [Hp Hl]. rewrite Hl. cbn. split; [reflexivity|]. split; [reflexivity|].
    destruct (poss_subnode _ _ Hp) as (n & Hn & Hpn). exists n. rewrite Hpn.
    split; [exact Hn|]. split; [reflexivity|]. split; [reflexivity | apply line_at_bounds].
  - intros m. destruct r; cbn; try discriminate.
    destruct (line_number src (cur st)); cbn; [intros H; inversion H; reflexivity | discriminate].
  - intros c. destruct r; cbn; try discriminate.
    + rewrite (proj2 (Hin m eq_refl)). cbn. discriminate.
    + intros H; inversion H; reflexivity.
Qed.
End Render.
