(* C10, source tie by translation, second layer: what follows for Model/MsgId.v's composite
   functions from the equalities of Proofs/SourceTieMsg.v (isAlphaNumeric, fingerprint, calcID's
   tail, htmlTagNames as gotrans translates them from the source of the tree under check).
   notes/gotrans-msgid-needs.md lists, function by function, what gotrans does not translate. *)
From Coq Require Import ZArith NArith Bool Lia ZifyBool List.
From Soy Require Import Model.Bytes Model.Outcome Generated.Tables Model.MsgId Proofs.SourceTieBase Proofs.SourceTieMsg.
Import ListNotations.
Open Scope N_scope.

(* id.go calcID, whole: `fp = fingerprint(buf.Bytes())` followed by the translated tail *)
Theorem calc_id_matches_source_full (fpstr meaning : bstr) :
  Z.of_N (calc_id fpstr meaning) =
  src_soymsg_calcID_tail hash32_z meaning (src_soymsg_fingerprint hash32_z fpstr).
Proof. rewrite <- fingerprint_matches_source. apply calc_id_matches_source. Qed.

(* ... hence the model's id is a function of the two hash32 runs through TRANSLATED code only:
   any two hash functions that agree on the four strings/seeds involved give the same id *)
Theorem calc_id_source_depends_on_hash32_only (h : bstr -> Z -> Z -> Z -> Z) (fpstr meaning : bstr) :
  (forall s a l c, h s a l c = hash32_z s a l c) ->
  Z.of_N (calc_id fpstr meaning) = src_soymsg_calcID_tail h meaning (src_soymsg_fingerprint h fpstr).
Proof.
  intro H. rewrite calc_id_matches_source_full.
  unfold src_soymsg_calcID_tail, src_soymsg_fingerprint. rewrite !H. reflexivity.
Qed.

(* placeholder.go tagName's loop `for i, ch := range text { if !isAlphaNumeric(ch) { return text[:i] } }`
   (panic when it runs off the end), with the SOURCE's isAlphaNumeric: the model's alnum_prefix returns
   text[:i] for the first i whose byte the translated predicate rejects, and None iff it rejects none *)
Definition src_alnum (c : N) : bool := src_soymsg_isAlphaNumeric (Z.of_N c).

Theorem alnum_prefix_matches_source (s p : bstr) :
  alnum_prefix s = Some p <->
  exists c r, s = p ++ c :: r /\ forallb src_alnum p = true /\ src_alnum c = false.
Proof.
  unfold src_alnum. revert p. induction s as [|x s IH]; intro p; cbn [alnum_prefix].
  - split; [discriminate|]. intros (c & r & E & _). destruct p; discriminate.
  - rewrite (c_alnum_matches_source x). destruct (src_soymsg_isAlphaNumeric (Z.of_N x)) eqn:Ex.
    + destruct (alnum_prefix s) as [q|] eqn:Eq.
      * split.
        -- intro H. inversion H; subst p. destruct (proj1 (IH q) eq_refl) as (c & r & E & Hp & Hc).
           exists c, r. cbn [forallb app]. rewrite Ex, Hp, E. auto.
        -- intros (c & r & E & Hp & Hc). destruct p as [|y p]; cbn [app] in E; inversion E; subst.
           ++ congruence.
           ++ cbn [forallb] in Hp. apply andb_true_iff in Hp. destruct Hp as [_ Hp].
              f_equal. f_equal. symmetry.
              assert (Some q = Some p) as Hq by (apply IH; exists c, r; auto). inversion Hq; reflexivity.
      * split; [discriminate|]. intros (c & r & E & Hp & Hc). destruct p as [|y p]; cbn [app] in E; inversion E; subst.
        -- congruence.
        -- cbn [forallb] in Hp. apply andb_true_iff in Hp. destruct Hp as [_ Hp].
           assert (None = Some p) as Hq by (apply IH; exists c, r; auto). discriminate.
    + split.
      * intro H. inversion H; subst p. exists x, s. auto.
      * intros (c & r & E & Hp & Hc). destruct p as [|y p]; [reflexivity|].
        cbn [app] in E. inversion E; subst. cbn [forallb] in Hp. rewrite Ex in Hp. discriminate.
Qed.

Theorem alnum_prefix_none_matches_source (s : bstr) :
  alnum_prefix s = None <-> forallb src_alnum s = true.
Proof.
  unfold src_alnum. induction s as [|x s IH]; cbn [alnum_prefix forallb]; [tauto|].
  rewrite (c_alnum_matches_source x). destruct (src_soymsg_isAlphaNumeric (Z.of_N x)); cbn [andb].
  - destruct (alnum_prefix s); [split; [discriminate|intro H; apply IH in H; discriminate]|tauto].
  - split; discriminate.
Qed.

(* placeholder.go genBasePlaceholderNameFromHtml: the pretty-name lookup goes through the SOURCE's table *)
Theorem base_from_html_matches_source_table (text : bstr) :
  base_from_html text =
  ('(tag, tag_type) <- tag_name text ;;
   let tag := match assoc_s tag src_soymsg_htmlTagNames with Some pretty => pretty | None => tag end in
   Ok (to_upper_underscore (tag_type ++ tag))).
Proof.
  unfold base_from_html. destruct (tag_name text) as [[tag ty]| | | | |]; try reflexivity.
  cbn [bind]. rewrite html_tag_names_matches_source. reflexivity.
Qed.
