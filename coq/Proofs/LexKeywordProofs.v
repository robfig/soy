(* C17: the keyword clause of [lex_ok] is the decidable predicate [c17_kw_clause] (Spec/LexKeyword.v). *)
From Soy Require Import Model.Bytes Model.Num Model.Values Model.Ast Model.Token Model.AstPrint Generated.Tables Spec.ExprSyntax Spec.LexKeyword
  Proofs.ExprParserProofs Proofs.LexTokens Proofs.LexExpr Proofs.LexPrint Proofs.LexPrintMain Proofs.LexPrintCmd.
From Coq Require Import ZifyBool Lia.
Open Scope N_scope.

(* an identifier: its shape, and the keyword clause *)
Definition word_shape (w : bstr) : Prop := exists c0 cs, w = c0 :: cs /\ c0 < 128 /\ letter_b c0 = true /\ alnums cs.

Lemma plain_word_iff w : plain_word w <-> word_shape w /\ c17_not_keyword w = true.
Proof.
  unfold plain_word, word_shape, c17_not_keyword. split.
  - intros (c0 & cs & E & A & B & C & D). split; [exists c0, cs; auto|]. rewrite D. reflexivity.
  - intros [(c0 & cs & E & A & B & C) D]. exists c0, cs. repeat split; try assumption.
    destruct (assoc_s w builtin_idents); [discriminate|reflexivity].
Qed.

(* ---------- lex_ok = shape + keyword clause ----------
   [lex_shape] is [lex_ok] with "is an ASCII word" in place of "is an ASCII word that is not a keyword" at the
   identifiers that are printed bare (function names, the head of a global's dotted name); every other clause is
   the same.  lex_ok e <-> lex_shape e /\ c17_kw_clause e = true: the decidable clause the harness evaluates is
   exactly what lex_ok demands of identifiers beyond their shape. *)
Definition dotted_shape (name : bstr) : Prop :=
  match split_dots [] name with
  | first :: rest => word_shape first /\ Forall dot_seg rest
  | [] => False
  end.

Fixpoint lex_shape (e : node) : Prop :=
  match e with
  | NNull _ | NBool _ _ | NInt _ _ => True
  | NFloat _ f => match fl_print f with Some s => float_txt_ok s | None => True end
  | NString _ q _ => str_ok q
  | NGlobal _ name _ => dotted_shape name
  | NFunc _ name args => word_shape name /\ allP lex_shape args
  | NListLit _ items => allP lex_shape items
  | NMapLit _ items => allP (fun kv => str_ok (quote_key (fst kv)) /\ lex_shape (snd kv)) items
  | NDataRef _ key acc =>
      alnums key /\
      allP (fun a => match a with
                     | NAccIndex _ _ _ => True
                     | NAccKey _ _ k => alnums k /\ head_digit k = false
                     | NAccExpr _ _ x => lex_shape x
                     | _ => False
                     end) acc
  | NNot _ a | NNeg _ a => lex_shape a
  | NBin _ _ a1 a2 => lex_shape a1 /\ lex_shape a2
  | NTern _ c x y => lex_shape c /\ lex_shape x /\ lex_shape y
  | _ => False
  end.

(* a clause that splits elementwise splits over a list of children *)
Lemma allP_split {A} (P Q : A -> Prop) (f : A -> list bstr) l :
  (forall x, In x l -> (P x <-> Q x /\ forallb c17_not_keyword (f x) = true)) ->
  (allP P l <-> allP Q l /\ forallb c17_not_keyword (concat (map f l)) = true).
Proof.
  induction l as [|a l IH]; intros H; cbn [allP map concat]; [cbn; tauto|].
  rewrite forallb_app, Bool.andb_true_iff, (H a (or_introl eq_refl)), IH; [tauto|].
  intros x Hx. apply H. right. exact Hx.
Qed.

Lemma dotted_ok_iff name : dotted_ok name <-> dotted_shape name /\ c17_not_keyword (c17_global_head name) = true.
Proof.
  unfold dotted_ok, dotted_shape, c17_global_head. destruct (split_dots [] name) as [|first rest]; [tauto|].
  rewrite plain_word_iff. tauto.
Qed.

Theorem lex_ok_iff : forall e, lex_ok e <-> lex_shape e /\ c17_kw_clause e = true.
Proof.
  unfold c17_kw_clause. induction e as [e IH] using size_induction.
  destruct e; cbn [lex_ok lex_shape c17_idents forallb]; try tauto.
  - (* global *) rewrite dotted_ok_iff, Bool.andb_true_r. tauto.
  - (* func *) rewrite plain_word_iff, Bool.andb_true_iff, (allP_split lex_ok lex_shape c17_idents args); [tauto|].
    intros c Hc. apply IH. cbn [size]. pose proof (size_in_list c args Hc). lia.
  - (* list *) apply allP_split. intros c Hc. apply IH. cbn [size]. pose proof (size_in_list c items Hc). lia.
  - (* map *) apply (allP_split _ (fun kv => str_ok (quote_key (fst kv)) /\ lex_shape (snd kv)) (fun kv => c17_idents (snd kv))).
    intros kv Hc. rewrite (IH (snd kv)); [tauto|]. cbn [size]. pose proof (list_sum_In (fun kv => size (snd kv)) kv _ Hc). lia.
  - (* data ref *)
    rewrite (allP_split _ (fun a => match a with
                                    | NAccIndex _ _ _ => True
                                    | NAccKey _ _ k => alnums k /\ head_digit k = false
                                    | NAccExpr _ _ x => lex_shape x
                                    | _ => False
                                    end) c17_idents access); [tauto|].
    intros a Hc. destruct a; cbn [c17_idents forallb]; try tauto. apply IH.
    pose proof (size_in_list _ access Hc) as Hs. cbn [size] in Hs |- *. lia.
  - (* not *) apply IH. cbn [size]. lia.
  - (* neg *) apply IH. cbn [size]. lia.
  - (* bin *) rewrite forallb_app, Bool.andb_true_iff, (IH e1), (IH e2); [tauto|cbn [size]; lia|cbn [size]; lia].
  - (* tern *) rewrite !forallb_app, !Bool.andb_true_iff, (IH e1), (IH e2), (IH e3); [tauto|cbn [size]; lia..].
Qed.

Theorem lex_ok_kw_clause : forall e, lex_ok e -> c17_kw_clause e = true.
Proof. intros e H. apply lex_ok_iff. exact H. Qed.

(* print commands: directive names too *)
Definition lex_shape_directive (d : node) : Prop :=
  match d with NDirective _ name args => word_shape name /\ allP lex_shape args | _ => False end.
Definition lex_shape_print (n : node) : Prop :=
  match n with NPrint _ arg dirs => lex_shape arg /\ allP lex_shape_directive dirs | _ => False end.

Theorem lex_ok_print_iff n : lex_ok_print n <-> lex_shape_print n /\ c17_kw_clause n = true.
Proof.
  destruct n; cbn [lex_ok_print lex_shape_print]; try tauto. unfold c17_kw_clause. cbn [c17_idents].
  rewrite forallb_app, Bool.andb_true_iff. fold (c17_kw_clause n). rewrite (lex_ok_iff n).
  rewrite (allP_split lex_ok_directive lex_shape_directive c17_idents dirs); [tauto|].
  intros d _. destruct d; cbn [lex_ok_directive lex_shape_directive c17_idents forallb]; try tauto.
  rewrite plain_word_iff, Bool.andb_true_iff, (allP_split lex_ok lex_shape c17_idents args); [tauto|].
  intros c _. apply lex_ok_iff.
Qed.

Theorem lex_ok_print_kw_clause n : lex_ok_print n -> c17_kw_clause n = true.
Proof. intros H. apply lex_ok_print_iff. exact H. Qed.
