(* C15, scanner half for bodies in which comments and tags mix: the two comment states on a stretch of template
   text T followed by a tag or by the end of the input (the remaining input is T ++ tl; lexText on it is in
   Proofs/LexBodyText.v), and the three states together over the whole stretch. *)
From Soy Require Import Model.Bytes Model.Utf8 Model.Outcome Model.Token Generated.Tables Model.Lexer Spec.Text Spec.TextBody Spec.TextMix
  Proofs.Utf8Proofs Proofs.RawTextProofs Proofs.LexerPrim Proofs.LexerStates Proofs.LexTokens Proofs.LexExpr Proofs.LexBodyText.
From Coq Require Import ZifyBool Lia.
Open Scope Z_scope.

Section Mix.
Variable uni_letter uni_digit : Z -> bool.
Variable inp : bstr.
Notation ilen := (Z.of_nat (length inp)).
Notation span := (span inp).
Notation steps := (steps uni_letter uni_digit inp 0).
Variable tl : bstr.
Hypothesis Htl : tl = [] \/ exists tl', tl = 123%N :: tl'.
Notation cut_at := (cut_at tl).

(* ---------- Spec side: multi-byte runes inside a comment ---------- *)
Lemma cut_line_hi : forall bs T pcs, Forall (fun x => (128 <= x)%N) bs ->
  cut_at MLine false [] (bs ++ T) pcs -> cut_at MLine false [] T pcs.
Proof.
  induction bs as [|x bs IH]; intros T pcs Hall H; [exact H|]. inversion Hall as [|? ? Hx Hall']; subst.
  apply IH; [exact Hall'|]. unfold LexBodyText.cut_at in *. cbn [app pieces line_open] in H.
  replace (line_break x) with false in H by (unfold line_break; lia). exact H.
Qed.

Lemma cut_block_hi : forall bs x star T pcs, Forall (fun x => (128 <= x)%N) (x :: bs) ->
  cut_at (MBlock star) false [] ((x :: bs) ++ T) pcs -> cut_at (MBlock false) false [] T pcs.
Proof.
  induction bs as [|y bs IH]; intros x star T pcs Hall H; inversion Hall as [|? ? Hx Hall']; subst;
    unfold LexBodyText.cut_at in *; cbn [app pieces line_open] in H;
    replace (x =? 42)%N with false in H by lia; replace (x =? 47)%N with false in H by lia; cbn [andb] in H.
  - exact H.
  - exact (IH y false T pcs Hall' H).
Qed.

(* whether "//" directly behind an item begins a comment is decided by the item's last byte *)
Lemma pwof_emitted t l w c : pwof 0 (emitted 0 t l (w ++ [c])) = (Z.of_N c =? 0) || ws c.
Proof.
  unfold pwof, emitted. cbn [l_last mktok t_val]. destruct (w ++ [c]) as [|q qs] eqn:Eq; [destruct w; discriminate|].
  rewrite <- Eq. cbn [Z.eqb andb negb]. rewrite last_byte_snoc, spaceeol_byte. reflexivity.
Qed.

(* ---------- lexLineComment: the comment ends inside the stretch, or the input ends ---------- *)
Lemma line_comment_tl : forall fuel s cw l rest, span l cw (s ++ tl) -> (length s + length tl < fuel)%nat ->
  cut_at MLine false [] s rest ->
  exists l' s'' v, line_comment_loop inp ilen 0 fuel l = Ok (LText, l') /\ span l' [] (s'' ++ tl) /\ ((length s'' <= length s)%nat /\ suffix_of s'' s) /\
    sent itemComment v l l' /\ cut_at MText (pwof 0 l') [] s'' rest.
Proof.
  induction fuel as [|f IH]; intros s cw l rest Hs Hf Hc; [lia|]. cbn [line_comment_loop]. destruct s as [|c s].
  { destruct Hc as [Hp Ho].
    assert (Et : tl = []) by (destruct Htl as [E|(t & E)]; [exact E|discriminate (Ho ltac:(rewrite E; discriminate))]).
    cbn [app] in Hs. rewrite Et in Hs. rewrite (next_eof inp l cw Hs). cbn [bind].
    change (gen_isEndOfLine eof || (eof =? eof)) with true. cbv iota.
    destruct (emit_span inp 0 itemComment (ateof l) cw [] Hs) as (He & Hs2). unfold emit_to. rewrite He. cbn [bind].
    eexists _, [], cw. split; [reflexivity|]. split; [rewrite Et; exact Hs2|]. split; [split; [apply le_n|apply suffix_refl]|].
    split; [apply sent_emitted; reflexivity|]. split; [exact Hp|congruence]. }
  cbn [length] in Hf.
  destruct (next_in inp tl Htl l cw c s Hs) as (r & bs & s1 & l1 & E & Hlen & Hnx & Hs1 & Hu & Hcls). rewrite Hnx. cbn [bind].
  assert (Hgo : cut_at MLine false [] s1 rest ->
            exists l' s'' v, line_comment_loop inp ilen 0 f l1 = Ok (LText, l') /\ span l' [] (s'' ++ tl) /\ ((length s'' <= length (c :: s))%nat /\ suffix_of s'' (c :: s)) /\
              sent itemComment v l l' /\ cut_at MText (pwof 0 l') [] s'' rest).
  { intros Hc1. destruct (IH s1 (cw ++ bs) l1 rest Hs1 ltac:(lia) Hc1) as (l' & s'' & v & Hrun & Hs'' & (Hl & Hsf) & Hsent & Hc'').
    exists l', s'', v. split; [exact Hrun|]. split; [exact Hs''|]. split; [split; [cbn [length]; lia|rewrite E; apply suffix_app; exact Hsf]|].
    split; [exact (sent_unsent_l _ _ _ _ _ Hu Hsent)|exact Hc'']. }
  destruct Hcls as [(Hlt & -> & ->)|(Hall & Hne & Hr)].
  - cbn [app] in E. injection E as <-. rewrite eol_byte.
    assert (Hne : (Z.of_N c =? eof) = false) by (unfold eof; lia). rewrite Hne, Bool.orb_false_r.
    unfold LexBodyText.cut_at in Hc. cbn [pieces line_open] in Hc. destruct (line_break c) eqn:Elb; [|exact (Hgo Hc)].
    destruct (emit_span inp 0 itemComment l1 (cw ++ [c]) (s ++ tl) Hs1) as (He & Hs2). unfold emit_to. rewrite He. cbn [bind].
    eexists _, s, (cw ++ [c]). split; [reflexivity|]. split; [exact Hs2|]. split; [split; [cbn [length]; lia|apply suffix_cons, suffix_refl]|].
    destruct Hu as (A & B & C). split; [apply sent_emitted; assumption|]. rewrite pwof_emitted.
    replace (ws c) with true by (unfold ws, line_break in *; lia). rewrite Bool.orb_true_r. exact Hc.
  - replace (gen_isEndOfLine r || (r =? eof)) with false by (unfold gen_isEndOfLine, eof; lia).
    apply Hgo. rewrite E in Hc. exact (cut_line_hi bs s1 rest Hall Hc).
Qed.

(* ---------- lexBlockComment: always closed inside the stretch ---------- *)
Lemma block_comment_tl : forall fuel s cw l star rest, span l cw (s ++ tl) -> (length s + length tl < fuel)%nat ->
  cut_at (MBlock star) false [] s rest ->
  exists l' s'' v, block_comment_loop inp ilen 0 fuel star l = Ok (LText, l') /\ span l' [] (s'' ++ tl) /\ ((length s'' <= length s)%nat /\ suffix_of s'' s) /\
    sent itemComment v l l' /\ cut_at MText (pwof 0 l') [] s'' rest.
Proof.
  induction fuel as [|f IH]; intros s cw l star rest Hs Hf Hc; [lia|]. cbn [block_comment_loop].
  destruct s as [|c s]; [destruct Hc as [Hp _]; discriminate Hp|]. cbn [length] in Hf.
  destruct (next_in inp tl Htl l cw c s Hs) as (r & bs & s1 & l1 & E & Hlen & Hnx & Hs1 & Hu & Hcls). rewrite Hnx. cbn [bind].
  assert (Hgo : forall star', cut_at (MBlock star') false [] s1 rest ->
            exists l' s'' v, block_comment_loop inp ilen 0 f star' l1 = Ok (LText, l') /\ span l' [] (s'' ++ tl) /\ ((length s'' <= length (c :: s))%nat /\ suffix_of s'' (c :: s)) /\
              sent itemComment v l l' /\ cut_at MText (pwof 0 l') [] s'' rest).
  { intros star' Hc1. destruct (IH s1 (cw ++ bs) l1 star' rest Hs1 ltac:(lia) Hc1) as (l' & s'' & v & Hrun & Hs'' & (Hl & Hsf) & Hsent & Hc'').
    exists l', s'', v. split; [exact Hrun|]. split; [exact Hs''|]. split; [split; [cbn [length]; lia|rewrite E; apply suffix_app; exact Hsf]|].
    split; [exact (sent_unsent_l _ _ _ _ _ Hu Hsent)|exact Hc'']. }
  destruct Hcls as [(Hlt & -> & ->)|(Hall & Hne & Hr)].
  - cbn [app] in E. injection E as <-.
    assert (Hne : (Z.of_N c =? eof) = false) by (unfold eof; lia). rewrite Hne.
    unfold LexBodyText.cut_at in Hc. cbn [pieces line_open] in Hc. destruct (N.eqb_spec c 42) as [->|H42]; [exact (Hgo true Hc)|].
    assert (E42 : (Z.of_N c =? 42) = false) by lia. rewrite E42.
    replace ((Z.of_N c =? 47) && star) with ((c =? 47)%N && star) by lia.
    destruct ((c =? 47)%N && star) eqn:Ecl; [|exact (Hgo false Hc)].
    apply Bool.andb_true_iff in Ecl. destruct Ecl as [Ec _]. apply N.eqb_eq in Ec. subst c.
    destruct (emit_span inp 0 itemComment l1 (cw ++ [47%N]) (s ++ tl) Hs1) as (He & Hs2). unfold emit_to. rewrite He. cbn [bind].
    eexists _, s, (cw ++ [47%N]). split; [reflexivity|]. split; [exact Hs2|]. split; [split; [cbn [length]; lia|apply suffix_cons, suffix_refl]|].
    destruct Hu as (A & B & C). split; [apply sent_emitted; assumption|]. rewrite pwof_emitted. exact Hc.
  - assert (E1 : (r =? eof) = false) by (unfold eof; lia). assert (E2 : (r =? 42) = false) by lia.
    assert (E3 : ((r =? 47) && star) = false) by lia. rewrite E1, E2, E3.
    apply Hgo. rewrite E in Hc. destruct bs as [|x bs]; [congruence|]. exact (cut_block_hi bs x star s1 rest Hall Hc).
Qed.

(* ---------- one stretch: lexText and the comment states, up to the tag that follows or the end of the input ----------
   The items sent satisfy every relation [P] between pieces and items that is closed under the two rules of the
   item grammar of a stretch ([pshape] of Proofs/LexBodyMixMain.v; [shape] of Proofs/LexBodyTop.v is the same
   with EOF appended). *)
Section Stretch.
Variable P : list bstr -> list tok -> Prop.
Hypothesis P_last : forall x txt, is_text_of x txt -> P [x] txt.
Hypothesis P_more : forall x x' txt c rest items,
  is_text_of x' txt -> (x = x' \/ exists b, ws b = true /\ x = x' ++ [b]) -> t_typ c = itemComment ->
  P rest items -> P (x :: rest) (txt ++ c :: items).

Lemma lex_stretch_gen : forall pcs T l, span l [] (T ++ tl) -> plain T -> cut_at MText (pwof 0 l) [] T pcs ->
  exists k l' its st', steps k LText l = Ok (st', l') /\ P pcs its /\ l_dd l' = l_dd l /\
    ((tl = [] /\ st' = LDone /\ exists e, t_typ e = itemEOF /\ l_out l' = e :: rev its ++ l_out l) \/
     (tl <> [] /\ st' = LLeftDelim /\ l_out l' = rev its ++ l_out l /\ span l' [] tl)).
Proof.
  assert (Hfuel : forall l w s, span l w (s ++ tl) -> (length s + length tl < loop_fuel ilen l)%nat).
  { intros l w s Hs. rewrite <- app_length. exact (span_fuel inp l w _ Hs). }
  induction pcs as [|x rest IH]; intros T l Hs Hpl Hc;
    destruct (text_loop_tl inp tl Htl (loop_fuel ilen l) T [] l 0 _ Hs (Hfuel _ _ _ Hs) Hpl last_read_0 Hc)
      as (st' & l1 & Hrun & (x0 & rest0 & Hp & Hres)); [discriminate Hp|]. injection Hp as <- <-.
  assert (H1 : steps 1 LText l = Ok (st', l1)) by (apply steps_one; exact Hrun).
  destruct Hres as [(-> & txt & Htx & Hdd & B)|(txt & x' & s2 & op & m & Hdd & Htx & Ho & D & Hs2 & (_ & Hsf2) & Hc2)].
  { exists 1%nat, l1, txt, st'. split; [exact H1|]. split; [exact (P_last _ _ Htx)|]. split; [exact Hdd|].
    destruct B as [B|(B1 & B2 & B3 & B4 & _)]; [left; exact B|right; auto]. }
  assert (Hcom : exists l2 s3 v, steps 1 st' l1 = Ok (LText, l2) /\ span l2 [] (s3 ++ tl) /\ suffix_of s3 s2 /\
                   sent itemComment v l1 l2 /\ cut_at MText (pwof 0 l2) [] s3 rest /\
                   (x = x' \/ exists b, ws b = true /\ x = x' ++ [b])).
  { destruct D as [(-> & -> & -> & Hx)|(-> & -> & -> & ->)].
    - destruct (line_comment_tl _ s2 _ l1 rest Hs2 (Hfuel _ _ _ Hs2) Hc2) as (l2 & s3 & v & Hr & A).
      exists l2, s3, v. split; [apply steps_one; exact Hr|]. tauto.
    - destruct (block_comment_tl _ s2 _ l1 false rest Hs2 (Hfuel _ _ _ Hs2) Hc2) as (l2 & s3 & v & Hr & A).
      exists l2, s3, v. split; [apply steps_one; exact Hr|]. tauto. }
  destruct Hcom as (l2 & s3 & v & H2 & Hs3 & Hsf3 & (p & Ho2 & _ & Hdd2) & Hc3 & Hx).
  destruct (IH s3 l2 Hs3 (Hsf3 _ (Hsf2 _ Hpl)) Hc3) as (k & l' & items & st'' & Hst & HP & Hdd' & Hend).
  exists (1 + (1 + k))%nat, l', (txt ++ {| t_typ := itemComment; t_pos := p; t_val := v |} :: items), st''.
  split; [rewrite (steps_app _ _ _ _ 1 (1 + k) _ _ _ _ H1), (steps_app _ _ _ _ 1 k _ _ _ _ H2); exact Hst|].
  split; [apply (P_more x x'); [exact Htx|exact Hx|reflexivity|exact HP]|]. split; [congruence|].
  rewrite Ho2, Ho in Hend. rewrite rev_app_distr. cbn [rev]. rewrite <- !app_assoc. exact Hend.
Qed.

End Stretch.
End Mix.
