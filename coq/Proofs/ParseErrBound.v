(* C19, parse half: every error parse.SoyFile returns is positioned inside the input
   (Model/Parser.v).  [eok r]: an error result carries a token whose position is at most
   len(input) -- or it comes from a quoted attribute expression whose sub-scanner had no
   enclosing text to point into (class prefixed "quoted:"; the model takes the sub-scanner's
   items and strconv.Unquote as parameters, so that case cannot be excluded here; the harness
   never sees it).  The proof is one pass over every procedure of the parser model: errors are
   only ever created by errorAt (which slices input[:pos]: a position beyond the input is the
   run-time panic [CCrash], not an error) and passed on by [cbind]. *)
From Soy Require Import Model.Bytes Model.Ast Model.Token Model.Parser Generated.Tables.
From Soy Require Export Proofs.BytesBase.
Open Scope N_scope.

Section Bound.
Variable inlen : N.
Variable lexq : bstr -> list tok.
Variable unq : bstr -> option bstr.
Variable pexpr : nat -> N -> pst -> presult node.
Variable efuel : list tok -> nat.

Definition tok_inside (t : tok) (c : bstr) : Prop := t_pos t <= inlen \/ is_prefix e_quoted c = true.

Definition eok {A} (r : cres A) : Prop :=
  match r with CErr t c _ => tok_inside t c | _ => True end.

Lemma eok_bind {A B} (x : cres A) (f : A -> cst -> cres B) : eok x -> (forall a s, eok (f a s)) -> eok (cbind x f).
Proof. destruct x; cbn; auto. Qed.
Lemma eok_ok {A} (a : A) s : eok (COk a s). Proof. exact I. Qed.
Lemma eok_crash {A} m : eok (@CCrash A m). Proof. exact I. Qed.
Lemma eok_fuel {A} : eok (@CFuel A). Proof. exact I. Qed.
Lemma eok_error_at {A} t c s : eok (@c_error_at inlen A t c s).
Proof. unfold c_error_at. destruct (N.leb_spec (t_pos t) inlen); cbn; [left; assumption | exact I]. Qed.
Lemma eok_errorf {A} c s : eok (@c_errorf inlen A c s).
Proof. unfold c_errorf. destruct (3 <=? _)%nat; [exact I | apply eok_error_at]. Qed.
Lemma eok_unexp {A} t c s : eok (@c_unexp inlen A t c s).
Proof. unfold c_unexp. destruct (tis t pit_Error); apply eok_error_at. Qed.
Lemma eok_next s : eok (c_next s).
Proof. unfold c_next. destruct (3 <=? _)%nat; [exact I|]. destruct (p_next (c_p s)); exact I. Qed.
Lemma eok_peek s : eok (c_peek s).
Proof. unfold c_peek. destruct (3 <=? _)%nat; [exact I|]. destruct (p_peek_tok (c_p s)); exact I. Qed.
Lemma eok_expect ty c s : eok (c_expect inlen ty c s).
Proof. unfold c_expect. apply eok_bind; [apply eok_next|]. intros t s1. destruct (tis t ty); [exact I | apply eok_unexp]. Qed.
Lemma eok_tail1 v s : eok (tail1 v s).
Proof. destruct v; exact I. Qed.
Lemma eok_lift_expr f prec s : eok (lift_expr inlen pexpr f prec s).
Proof.
  unfold lift_expr. destruct (pexpr f prec (c_p s)); try exact I.
  destruct (N.leb_spec (t_pos at_) inlen); cbn; [left; assumption | exact I].
Qed.
Lemma eok_quoted str s : eok (parse_quoted_expr inlen lexq pexpr efuel str s).
Proof.
  unfold parse_quoted_expr. destruct (3 <=? _)%nat; [exact I|]. cbv zeta.
  destruct (pexpr _ 0 _); try exact I.
  destruct (t_pos at_ <=? _); [|exact I]. cbn [eok]. right. apply is_prefix_app_self.
Qed.

Hint Resolve eok_ok eok_crash eok_fuel eok_error_at eok_errorf eok_unexp eok_next eok_peek eok_expect eok_tail1
  eok_lift_expr eok_quoted : eok.

Ltac eok_step :=
  match goal with
  | |- eok (cbind _ _) => apply eok_bind; [ | intros ? ? ]
  | |- eok (if ?c then _ else _) => destruct c
  | |- eok (match ?x with _ => _ end) => destruct x
  | |- eok (let _ := _ in _) => cbv zeta
  | |- eok (let '(_, _) := ?x in _) => destruct x
  | |- eok _ => solve [ auto with eok ]
  end.
Ltac eok_go := repeat eok_step.

(* ---------- leaf loops ---------- *)
Lemma eok_attrs_loop f : forall allowed acc s, eok (attrs_loop inlen unq f allowed acc s).
Proof. induction f as [|f IH]; intros; cbn [attrs_loop]; eok_go; apply IH. Qed.
Lemma eok_parse_autoescape attrs s : eok (parse_autoescape inlen attrs s).
Proof. unfold parse_autoescape. eok_go. Qed.
Lemma eok_bool_attr attrs k d s : eok (bool_attr inlen attrs k d s).
Proof. unfold bool_attr. eok_go. Qed.
Lemma eok_next_non_comment f : forall s, eok (next_non_comment f s).
Proof. induction f as [|f IH]; intros; cbn [next_non_comment]; eok_go; apply IH. Qed.
Lemma eok_skip_comments f : forall t s, eok (skip_comments f t s).
Proof. induction f as [|f IH]; intros; cbn [skip_comments]; eok_go; apply IH. Qed.
Lemma eok_text_run f : forall t s, eok (text_run f t s).
Proof. induction f as [|f IH]; intros; cbn [text_run]; eok_go; apply IH. Qed.
Lemma eok_soydoc_loop f : forall p ps s, eok (soydoc_loop inlen f p ps s).
Proof. induction f as [|f IH]; intros; cbn [soydoc_loop]; eok_go; apply IH. Qed.
Lemma eok_alias_loop f : forall n l s, eok (alias_loop inlen f n l s).
Proof. induction f as [|f IH]; intros; cbn [alias_loop]; eok_go; apply IH. Qed.
Lemma eok_parse_alias f s : eok (parse_alias inlen f s).
Proof. unfold parse_alias. eok_go. apply eok_alias_loop. Qed.
Lemma eok_dotted_name f : forall n s, eok (dotted_name f n s).
Proof. induction f as [|f IH]; intros; cbn [dotted_name]; eok_go; apply IH. Qed.
Hint Resolve eok_attrs_loop eok_parse_autoescape eok_bool_attr eok_next_non_comment eok_skip_comments eok_text_run
  eok_soydoc_loop eok_alias_loop eok_parse_alias eok_dotted_name : eok.
Lemma eok_parse_namespace f t s : eok (parse_namespace inlen unq f t s).
Proof. unfold parse_namespace. eok_go. Qed.
Hint Resolve eok_parse_namespace : eok.

(* ---------- one level: parseExpr [pe] and itemList one level down [w] report inside ---------- *)
Section Level.
Variable pe : N -> cst -> cres node.
Variable w : list N -> cst -> cres node.
Variable lf : nat.
Hypothesis Hpe : forall prec s, eok (pe prec s).
Hypothesis Hw : forall u s, eok (w u s).
Hint Resolve Hpe Hw : eok.

Notation PQ := (parse_quoted_expr inlen lexq pexpr efuel).

Lemma eok_directive_args f : forall args s, eok (directive_args pe f args s).
Proof. induction f as [|f IH]; intros; cbn [directive_args]; eok_go; apply IH. Qed.
Hint Resolve eok_directive_args : eok.
Lemma eok_cmd_print_loop f : forall pos e dirs s, eok (cmd_print_loop inlen pe lf f pos e dirs s).
Proof. induction f as [|f IH]; intros; cbn [cmd_print_loop]; eok_go; apply IH. Qed.
Hint Resolve eok_cmd_print_loop : eok.
Lemma eok_cmd_print t s : eok (cmd_print inlen pe lf t s).
Proof. unfold cmd_print. eok_go. Qed.
Lemma eok_parse_let t s : eok (parse_let inlen unq pe w lf t s).
Proof. unfold parse_let. eok_go. Qed.
Lemma eok_parse_css t s : eok (parse_css inlen lexq pexpr efuel t s).
Proof. unfold parse_css. eok_go. Qed.
Lemma eok_call_name_loop f : forall n s, eok (call_name_loop f n s).
Proof. induction f as [|f IH]; intros; cbn [call_name_loop]; eok_go; apply IH. Qed.
Hint Resolve eok_call_name_loop : eok.
Lemma eok_call_name s : eok (call_name lf s).
Proof. unfold call_name. eok_go. Qed.
Lemma eok_orphan_text f : forall t s, eok (orphan_text inlen lf f t s).
Proof. induction f as [|f IH]; intros; cbn [orphan_text]; eok_go; apply IH. Qed.
Hint Resolve eok_cmd_print eok_parse_let eok_parse_css eok_call_name eok_orphan_text : eok.
Lemma eok_param_attr_form rec params initial key0 s :
  (forall ps s', eok (rec ps s')) -> eok (param_attr_form inlen lexq unq pexpr efuel w lf rec params initial key0 s).
Proof. intros Hrec. unfold param_attr_form. eok_go; apply Hrec. Qed.
Lemma eok_call_params_loop f : forall params s, eok (call_params_loop inlen lexq unq pexpr efuel pe w lf f params s).
Proof.
  induction f as [|f IH]; intros; cbn [call_params_loop]; eok_go; try apply IH;
    apply eok_param_attr_form; exact IH.
Qed.
Hint Resolve eok_call_params_loop : eok.
Lemma eok_parse_call t s : eok (parse_call inlen lexq unq pexpr efuel pe w lf t s).
Proof. unfold parse_call. eok_go. Qed.
Lemma eok_case_loop f : forall t vs s, eok (case_loop inlen pe w f t vs s).
Proof. induction f as [|f IH]; intros; cbn [case_loop]; eok_go; apply IH. Qed.
Hint Resolve eok_parse_call eok_case_loop : eok.
Lemma eok_switch_loop f : forall pos endt v cs s, eok (switch_loop inlen pe w lf f pos endt v cs s).
Proof. induction f as [|f IH]; intros; cbn [switch_loop]; eok_go; apply IH. Qed.
Hint Resolve eok_switch_loop : eok.
Lemma eok_parse_switch t endt s : eok (parse_switch inlen pe w lf t endt s).
Proof. unfold parse_switch. eok_go. Qed.
Lemma eok_plural_cases cs : forall cases d s, eok (plural_cases inlen cs cases d s).
Proof.
  induction cs as [|c r IH]; intros; cbn [plural_cases]; [exact I|].
  destruct c; try apply IH. destruct values as [|v vs]; [apply IH|].
  destruct v; try apply eok_errorf. destruct vs; [apply IH | apply eok_errorf].
Qed.
Hint Resolve eok_parse_switch eok_plural_cases : eok.
Lemma eok_parse_plural t s : eok (parse_plural inlen pe w lf t s).
Proof. unfold parse_plural. eok_go. Qed.
Lemma eok_parse_for t s : eok (parse_for inlen pe w t s).
Proof. unfold parse_for. eok_go. Qed.
Lemma eok_if_loop f : forall pos conds ie s, eok (if_loop inlen pe w f pos conds ie s).
Proof. induction f as [|f IH]; intros; cbn [if_loop]; eok_go; apply IH. Qed.
Lemma eok_parse_msg t s : eok (parse_msg inlen unq w lf t s).
Proof. unfold parse_msg. eok_go. Qed.
Lemma eok_parse_template t s : eok (parse_template inlen unq w lf t s).
Proof. unfold parse_template. eok_go. Qed.
Lemma eok_parse_header_param t s : eok (parse_header_param inlen pe t s).
Proof. unfold parse_header_param. eok_go. Qed.
Hint Resolve eok_parse_plural eok_parse_for eok_if_loop eok_parse_msg eok_parse_template eok_parse_header_param : eok.
Lemma eok_notmsg {A} t s (k : cres A) : eok k -> eok (notmsg inlen t s k).
Proof. intros H. unfold notmsg. destruct (c_inmsg s); [apply eok_unexp | exact H]. Qed.
Lemma eok_some (r : cres node) : eok r -> eok (do (n, s') <- r; COk (Some n) s').
Proof. intros H. apply eok_bind; [exact H | intros; exact I]. Qed.
Lemma eok_begin_tag s : eok (begin_tag inlen lexq unq pexpr efuel pe w lf s).
Proof.
  unfold begin_tag. apply eok_bind; [apply eok_next|]. intros token s1. cbv zeta.
  repeat match goal with
         | |- eok (if ?c then _ else _) => destruct c
         | |- eok (notmsg _ _ _ _) => apply eok_notmsg
         | |- eok (cbind ?r (fun n s' => COk (Some n) s')) => apply eok_some
         | |- eok (match assoc ?a ?b with _ => _ end) => destruct (assoc a b)
         end; eok_go.
Qed.
Hint Resolve eok_begin_tag : eok.
Lemma eok_text_or_tag t until s : eok (text_or_tag inlen lexq unq pexpr efuel pe w lf t until s).
Proof. unfold text_or_tag. eok_go. Qed.
Hint Resolve eok_text_or_tag : eok.
Lemma eok_item_list_loop f : forall until pos acc s, eok (item_list_loop inlen lexq unq pexpr efuel pe w lf f until pos acc s).
Proof. induction f as [|f IH]; intros; cbn [item_list_loop]; eok_go; apply IH. Qed.
End Level.

Theorem eok_item_list fuel : forall until s, eok (item_list inlen lexq unq pexpr efuel fuel until s).
Proof.
  induction fuel as [|f IH]; intros; cbn [item_list]; [exact I|].
  apply eok_item_list_loop; [intros; apply eok_lift_expr | exact IH].
Qed.

(* parse.SoyFile: an error it returns carries a token positioned inside the input *)
Theorem parse_file_error_inside fuel ts t c st :
  po_result (parse_file inlen lexq unq pexpr efuel fuel ts) = PErr t c st -> tok_inside t c.
Proof.
  unfold parse_file. pose proof (eok_item_list fuel u_eof (cst_init ts)) as H.
  destruct (item_list _ _ _ _ _ fuel u_eof (cst_init ts)); cbn; intros E; inversion E; subst. exact H.
Qed.
End Bound.
