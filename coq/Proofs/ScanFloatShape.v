(* Every float item the scanner model sends has a text of the syntax  -?D+(.D+)?(e[+-]?D+)? :
   NumLit.split_float of its text is Some _, so the FRSyntax branch of NumLit.parse_float_round is
   dead for scanner output.

   Part 1: split_float accepts every text  sign? ++ D+ ++ (.D+)? ++ (e[+-]?D+)? .
   Part 2: backward lemmas about accept / acceptRun / scanNumber: whatever scanNumber consumed with
           ok = true on the decimal branch is such a text (no hypothesis on unicode.IsLetter/IsDigit,
           no bounds precondition: everything is derived from `... = Ok _`).
   Part 3: lexNumber preserves "every float item sent is well-formed"; with the run invariant of
           Proofs/ScanStartInv.v this gives the theorem for whole runs. *)
From Soy Require Import Model.Bytes Model.Utf8 Model.Outcome Model.Token Generated.Tables Model.Lexer Model.NumLit
  Proofs.LexerPrim Proofs.LexTokens Proofs.ScanStartInv.
From Coq Require Import ZifyBool Lia.
Open Scope Z_scope.

(* ================= Part 1: split_float on the scanner's syntax ================= *)

Definition digs (bs : bstr) : Prop := Forall (fun c => is_dec_digit c = true) bs.

Definition fl_sign_text (hs : bool) : bstr := if hs then [45%N] else [].
Definition fl_frac_text (frac : option bstr) : bstr := match frac with Some f => 46%N :: f | None => [] end.
Definition fl_exp_text (ex : option (bstr * bstr)) : bstr := match ex with Some (sg, e) => 101%N :: sg ++ e | None => [] end.
Definition fl_sign_ok (sg : bstr) : Prop := sg = [] \/ sg = [43%N] \/ sg = [45%N].
Definition frac_ok (frac : option bstr) : Prop := match frac with Some f => digs f /\ f <> [] | None => True end.
Definition exp_ok (ex : option (bstr * bstr)) : Prop :=
  match ex with Some (sg, e) => fl_sign_ok sg /\ digs e /\ e <> [] | None => True end.

(* split_float with its pieces named (convertible) *)
Definition strip_neg (s : bstr) : bool * bstr := match s with 45%N :: r => (true, r) | _ => (false, s) end.
Definition strip_sign (s4 : bstr) : bool * bstr :=
  match s4 with 43%N :: r => (false, r) | 45%N :: r => (true, r) | _ => (false, s4) end.
Definition after_frac (neg : bool) (ip fp s3 : bstr) : option float_lit :=
  match s3 with
  | [] => Some {| lit_neg := neg; lit_int := ip; lit_frac := fp; lit_eneg := false; lit_exp := [] |}
  | 101%N :: s4 =>
      let '(eneg, s5) := strip_sign s4 in
      let '(ex, s6) := span_digits s5 in
      match ex, s6 with
      | _ :: _, [] => Some {| lit_neg := neg; lit_int := ip; lit_frac := fp; lit_eneg := eneg; lit_exp := ex |}
      | _, _ => None
      end
  | _ => None
  end.
Definition split_float' (s : bstr) : option float_lit :=
  let '(neg, s1) := strip_neg s in
  let '(ip, s2) := span_digits s1 in
  match ip with
  | [] => None
  | _ =>
      match s2 with
      | 46%N :: s3 =>
          let '(fp, s4) := span_digits s3 in
          match fp with [] => None | _ => after_frac neg ip fp s4 end
      | _ => after_frac neg ip [] s2
      end
  end.
Lemma split_float_eq s : split_float s = split_float' s.
Proof. reflexivity. Qed.

Lemma digit_cases d : is_dec_digit d = true ->
  (d = 48 \/ d = 49 \/ d = 50 \/ d = 51 \/ d = 52 \/ d = 53 \/ d = 54 \/ d = 55 \/ d = 56 \/ d = 57)%N.
Proof. unfold is_dec_digit, in_range. lia. Qed.

Lemma strip_neg_digit d r : is_dec_digit d = true -> strip_neg (d :: r) = (false, d :: r).
Proof. intros H. destruct (digit_cases d H) as [->|[->|[->|[->|[->|[->|[->|[->|[->| ->]]]]]]]]]; reflexivity. Qed.
Lemma strip_sign_digit d r : is_dec_digit d = true -> strip_sign (d :: r) = (false, d :: r).
Proof. intros H. destruct (digit_cases d H) as [->|[->|[->|[->|[->|[->|[->|[->|[->| ->]]]]]]]]]; reflexivity. Qed.

(* the longest digit prefix of  ds ++ rest  is ds when rest does not start with a digit *)
Definition no_digit_head (rest : bstr) : Prop := match rest with [] => True | c :: _ => is_dec_digit c = false end.
Lemma span_digits_app ds rest : digs ds -> no_digit_head rest -> span_digits (ds ++ rest) = (ds, rest).
Proof.
  intros Hd Hr. induction Hd as [|c ds Hc _ IH]; cbn [app].
  - destruct rest as [|c r]; [reflexivity|]. cbn in Hr |- *. rewrite Hr. reflexivity.
  - cbn [span_digits]. rewrite Hc, IH. reflexivity.
Qed.
Lemma span_digits_all ds : digs ds -> span_digits ds = (ds, []).
Proof. intros Hd. rewrite <- (app_nil_r ds) at 1. apply span_digits_app; [exact Hd|exact I]. Qed.

Lemma exp_text_head ex : no_digit_head (fl_exp_text ex).
Proof. destruct ex as [[sg e]|]; cbn; [reflexivity|exact I]. Qed.

Lemma after_frac_ok neg ip fp ex : exp_ok ex -> exists fl, after_frac neg ip fp (fl_exp_text ex) = Some fl.
Proof.
  destruct ex as [[sg e]|]; cbn [exp_ok fl_exp_text]; [|intros _; eexists; reflexivity].
  intros (Hsg & He & Hne). destruct e as [|d e]; [congruence|]. inversion He as [|? ? Hd He']; subst.
  unfold after_frac.
  assert (Hs : exists eneg, strip_sign (sg ++ d :: e) = (eneg, d :: e)).
  { destruct Hsg as [->|[->| ->]]; cbn [app]; [rewrite (strip_sign_digit d e Hd)|cbn|cbn]; eexists; reflexivity. }
  destruct Hs as (eneg & ->). rewrite (span_digits_all (d :: e) He). eexists; reflexivity.
Qed.

Theorem split_float_shape hs ip frac ex : digs ip -> ip <> [] -> frac_ok frac -> exp_ok ex ->
  exists fl, split_float (fl_sign_text hs ++ ip ++ fl_frac_text frac ++ fl_exp_text ex) = Some fl.
Proof.
  intros Hip Hne Hfr Hex. rewrite split_float_eq. unfold split_float'.
  destruct ip as [|d ip]; [congruence|]. pose proof Hip as Hip0. inversion Hip as [|? ? Hd Hip']; subst.
  assert (Hs : strip_neg (fl_sign_text hs ++ (d :: ip) ++ fl_frac_text frac ++ fl_exp_text ex) = (hs, (d :: ip) ++ fl_frac_text frac ++ fl_exp_text ex)).
  { destruct hs; cbn [fl_sign_text app]; [reflexivity|]. apply strip_neg_digit. exact Hd. }
  rewrite Hs. clear Hs.
  destruct frac as [f|]; cbn [fl_frac_text frac_ok] in *.
  - destruct Hfr as [Hf Hfne]. change ((46%N :: f) ++ fl_exp_text ex) with (46%N :: f ++ fl_exp_text ex).
    rewrite (span_digits_app (d :: ip) (46%N :: f ++ fl_exp_text ex) Hip0 ltac:(reflexivity)).
    rewrite (span_digits_app f _ Hf (exp_text_head ex)). destruct f as [|d2 f]; [congruence|]. apply after_frac_ok. exact Hex.
  - cbn [app]. change (d :: ip ++ fl_exp_text ex) with ((d :: ip) ++ fl_exp_text ex).
    rewrite (span_digits_app (d :: ip) _ Hip0 (exp_text_head ex)).
    destruct ex as [[sg e]|]; cbn [fl_exp_text]; [apply (after_frac_ok hs (d :: ip) [] (Some (sg, e))); exact Hex|eexists; reflexivity].
Qed.

(* ================= Part 2: what scanNumber consumed ================= *)

Lemma in_set_mem set r : in_set set r = true -> 0 <= r < 128 /\ mem (Z.to_N r) set = true.
Proof.
  unfold in_set. intros H. apply Bool.andb_true_iff in H. destruct H as [H1 H2]. split; [lia|exact H2].
Qed.
Lemma mem_dec c : mem c dec_digits_set = true -> is_dec_digit c = true.
Proof. unfold mem, dec_digits_set, is_dec_digit, in_range. cbn [existsb]. lia. Qed.
Lemma mem_dot c : mem c num_dot_set = true -> c = 46%N.
Proof. unfold mem, num_dot_set. cbn [existsb]. lia. Qed.
Lemma mem_exp c : mem c num_exp_set = true -> c = 101%N.
Proof. unfold mem, num_exp_set. cbn [existsb]. lia. Qed.
Lemma mem_sign c : mem c num_sign_set = true -> c = 43%N \/ c = 45%N.
Proof. unfold mem, num_sign_set. cbn [existsb]. lia. Qed.

(* one step of inversion of  bind x f = Ok v  along H: x = Ok a (E) and f a = Ok v (H) *)
Ltac binv H :=
  let a := fresh "a" in let E := fresh "E" in
  apply bind_ok_inv in H; destruct H as (a & E & H); cbn beta in H.

Section Shape.
Variable uni_letter uni_digit : Z -> bool.
Variable inp : bstr.
Variable base : Z.
Notation ilen := (Z.of_nat (length inp)).

(* from l to l' the cursor moved over the bytes bs; start and the items sent are untouched *)
Definition adv_by (l l' : lx) (bs : bstr) : Prop :=
  l_start l' = l_start l /\ l_out l' = l_out l /\ l_pos l' = l_pos l + Z.of_nat (length bs) /\
  (0 <= l_pos l -> drop (Z.to_nat (l_pos l)) inp = bs ++ drop (Z.to_nat (l_pos l')) inp).

Lemma adv_trans l l1 l2 b1 b2 : adv_by l l1 b1 -> adv_by l1 l2 b2 -> adv_by l l2 (b1 ++ b2).
Proof.
  intros (A1 & A2 & A3 & A4) (B1 & B2 & B3 & B4). repeat split; try congruence.
  - rewrite app_length. lia.
  - intros H0. rewrite (A4 H0), (B4 ltac:(lia)), app_assoc. reflexivity.
Qed.

Lemma adv_nil l l' : l_start l' = l_start l -> l_out l' = l_out l -> l_pos l' = l_pos l -> adv_by l l' [].
Proof. intros A B C. repeat split; try assumption; [cbn [length]; lia|]. intros _. rewrite C. reflexivity. Qed.

Lemma next_back_adv l r l1 : next inp ilen l = Ok (r, l1) -> adv_by l (backup l1) [].
Proof.
  intros H. destruct (next_frame inp _ _ _ H) as (A & B & _ & _ & C). apply adv_nil; unfold backup, set_pos; cbn [l_start l_out l_pos]; assumption.
Qed.

Lemma next_one l r l1 : next inp ilen l = Ok (r, l1) -> 0 <= r < 128 ->
  exists c, r = Z.of_N c /\ (c < 128)%N /\ adv_by l l1 [c].
Proof.
  intros H Hr. destruct (next_frame inp _ _ _ H) as (A & B & _ & _ & _).
  destruct (next_ascii_inv inp _ _ _ H Hr) as (c & rest & -> & Hc & H0 & Hd & Hp & _).
  exists c. split; [reflexivity|]. split; [exact Hc|]. repeat split; try assumption.
  intros _. rewrite Hp. replace (Z.to_nat (l_pos l + 1)) with (S (Z.to_nat (l_pos l))) by lia.
  rewrite (drop_S_cons _ _ _ _ Hd). exact Hd.
Qed.

Lemma peek_inv l r l1 : peek inp ilen l = Ok (r, l1) -> adv_by l l1 [].
Proof. unfold peek. intros H. binv H. destruct a as [r0 l0]. injection H as <- <-. eapply next_back_adv; exact E. Qed.

(* accept(set): one ASCII byte of the set, or nothing *)
Lemma accept_inv set l b l1 : accept inp ilen set l = Ok (b, l1) ->
  exists r l0, next inp ilen l = Ok (r, l0) /\
    if b then exists c, r = Z.of_N c /\ mem c set = true /\ adv_by l l1 [c] else adv_by l l1 [].
Proof.
  unfold accept. intros H. binv H. destruct a as [r l0]. exists r, l0. split; [exact E|].
  destruct (in_set set r) eqn:Ei; injection H as <- <-.
  - destruct (in_set_mem _ _ Ei) as [Hr Hm]. destruct (next_one _ _ _ E Hr) as (c & -> & Hc & Ha).
    exists c. rewrite N2Z.id in Hm. auto.
  - eapply next_back_adv; exact E.
Qed.

Lemma accept_run_loop_inv set fuel : forall l l1, accept_run_loop inp ilen fuel set l = Ok l1 ->
  exists bs, Forall (fun c => mem c set = true) bs /\ adv_by l (backup l1) bs.
Proof.
  induction fuel as [|f IH]; intros l l1 H; cbn [accept_run_loop] in H; [discriminate|].
  binv H. destruct a as [r l0]. destruct (in_set set r) eqn:Ei.
  - destruct (in_set_mem _ _ Ei) as [Hr Hm]. destruct (next_one _ _ _ E Hr) as (c & -> & Hc & Ha). rewrite N2Z.id in Hm.
    destruct (IH _ _ H) as (bs & Hall & Hb). exists (c :: bs). split; [constructor; assumption|].
    change (c :: bs) with ([c] ++ bs). eapply adv_trans; eassumption.
  - injection H as <-. exists []. split; [constructor|]. eapply next_back_adv; exact E.
Qed.

Lemma accept_run_inv set l b l1 : accept_run inp ilen set l = Ok (b, l1) ->
  exists bs, Forall (fun c => mem c set = true) bs /\ adv_by l l1 bs /\ b = match bs with [] => false | _ => true end.
Proof.
  unfold accept_run. intros H. binv H. cbv zeta in H. injection H as <- <-.
  destruct (accept_run_loop_inv _ _ _ _ E) as (bs & Hall & Ha). exists bs. split; [exact Hall|]. split; [exact Ha|].
  destruct Ha as (_ & _ & Hp & _). unfold backup, set_pos in Hp. cbn [l_pos] in Hp. rewrite Hp. destruct bs; cbn [length]; lia.
Qed.

Lemma accept_run_digits_inv l b l1 : accept_run inp ilen dec_digits_set l = Ok (b, l1) ->
  exists ds, digs ds /\ adv_by l l1 ds /\ b = match ds with [] => false | _ => true end.
Proof.
  intros H. destruct (accept_run_inv _ _ _ _ H) as (bs & Hall & Ha & Hb). exists bs. split; [|split; assumption].
  eapply Forall_impl; [|exact Hall]. intros c. apply mem_dec.
Qed.

(* the mantissa: D+ or D+ . D+ *)
Lemma scan_mantissa_inv hs l1 t l4 : scan_mantissa inp ilen hs l1 = Ok (inr (t, l4)) ->
  exists ip frac, digs ip /\ ip <> [] /\ frac_ok frac /\ adv_by l1 l4 (ip ++ fl_frac_text frac).
Proof.
  unfold scan_mantissa. intros H. binv H. destruct a as [some l2].
  destruct (accept_run_digits_inv _ _ _ E) as (ip & Hip & Ha & ->).
  destruct ip as [|d ip]; cbn [negb] in H; [discriminate|].
  binv H. destruct a as [dot l3]. destruct (accept_inv _ _ _ _ E0) as (r & l0 & _ & Hacc).
  destruct dot.
  - destruct Hacc as (c & _ & Hm & Hb). apply mem_dot in Hm. subst c.
    binv H. destruct a as [fr l5]. destruct (accept_run_digits_inv _ _ _ E1) as (f & Hf & Hc & ->).
    destruct f as [|d2 f]; cbn [negb] in H; [discriminate|]. injection H as <- <-.
    exists (d :: ip), (Some (d2 :: f)). split; [exact Hip|]. split; [discriminate|]. split; [split; [exact Hf|discriminate]|].
    cbn [fl_frac_text]. change (46%N :: d2 :: f) with ([46%N] ++ d2 :: f).
    eapply adv_trans; [exact Ha|]. eapply adv_trans; eassumption.
  - binv H. binv H. destruct (_ || _); [discriminate|]. injection H as <- <-.
    exists (d :: ip), None. split; [exact Hip|]. split; [discriminate|]. split; [exact I|].
    cbn [fl_frac_text]. eapply adv_trans; [exact Ha|exact Hacc].
Qed.

(* the exponent: nothing, or e [+-]? D+ *)
Lemma scan_exponent_inv t l4 t' l7 : scan_exponent inp ilen t l4 = Ok (inr (t', l7)) ->
  exists ex, exp_ok ex /\ adv_by l4 l7 (fl_exp_text ex).
Proof.
  unfold scan_exponent. intros H. binv H. destruct a as [e l5]. destruct (accept_inv _ _ _ _ E) as (r & l0 & _ & Hacc).
  destruct e.
  - destruct Hacc as (c & _ & Hm & Ha). apply mem_exp in Hm. subst c.
    binv H. destruct a as [sgb l6]. destruct (accept_inv _ _ _ _ E0) as (r2 & l02 & _ & Hacc2).
    binv H. destruct a as [ds l8]. destruct (accept_run_digits_inv _ _ _ E1) as (ex & Hex & Hc & ->).
    destruct ex as [|d ex]; cbn [negb] in H; [discriminate|]. injection H as <- <-.
    assert (Hsg : exists sg, fl_sign_ok sg /\ adv_by l5 l6 sg).
    { destruct sgb.
      - destruct Hacc2 as (c & _ & Hm & Hb). apply mem_sign in Hm. exists [c]. split; [|exact Hb]. unfold fl_sign_ok. destruct Hm; subst; auto.
      - exists []. split; [left; reflexivity|exact Hacc2]. }
    destruct Hsg as (sg & Hsg & Hb).
    exists (Some (sg, d :: ex)). split; [cbn; split; [exact Hsg|split; [exact Hex|discriminate]]|].
    cbn [fl_exp_text]. change (101%N :: sg ++ d :: ex) with ([101%N] ++ sg ++ d :: ex).
    eapply adv_trans; [exact Ha|]. eapply adv_trans; eassumption.
  - injection H as <- <-. exists None. split; [exact I|exact Hacc].
Qed.

Lemma scan_hex_type l1 t l2 : scan_hex inp ilen l1 = Ok (inr (t, l2)) -> t = itemInteger.
Proof.
  unfold scan_hex. intros H. binv H. destruct a as [some l3]. destruct (negb some); [discriminate|].
  binv H. destruct a as [dot l4]. destruct dot; [discriminate|]. injection H as <- _. reflexivity.
Qed.

(* scanNumber, entered at anything but a "+", ok = true, type float: the bytes consumed *)
Lemma scan_number_inv l l' : scan_number uni_letter uni_digit inp ilen l = Ok (itemFloat, true, l') -> numhead inp l ->
  exists hs ip frac ex, digs ip /\ ip <> [] /\ frac_ok frac /\ exp_ok ex /\
    adv_by l l' (fl_sign_text hs ++ ip ++ fl_frac_text frac ++ fl_exp_text ex).
Proof.
  unfold scan_number. intros H Hnh. binv H. destruct a as [hasSign l1].
  destruct (accept_inv _ _ _ _ E) as (r & l0 & Hn & Hacc). specialize (Hnh _ _ Hn).
  assert (Hs : adv_by l l1 (fl_sign_text hasSign)).
  { destruct hasSign; cbn [fl_sign_text]; [|exact Hacc]. destruct Hacc as (c & -> & Hm & Ha). apply mem_sign in Hm.
    destruct Hm as [->| ->]; [exfalso; apply Hnh; reflexivity|exact Ha]. }
  clear Hacc. binv H. rename a into hex. binv H. destruct a as [[t l2]|[t l2]]; [injection H as _ Hf _; discriminate|].
  binv H. destruct a as [p l3]. destruct (is_alnum _ _ p); [binv H; destruct a; injection H as _ Hf _; discriminate|].
  injection H as -> <-. pose proof (peek_inv _ _ _ E2) as Hpk.
  destruct hex.
  - destruct hasSign; [discriminate|]. apply scan_hex_type in E1. discriminate.
  - binv E1. destruct a as [[t1 l4]|[t1 l4]]; [discriminate|].
    destruct (scan_mantissa_inv _ _ _ _ E3) as (ip & frac & Hip & Hne & Hfr & Ham).
    destruct (scan_exponent_inv _ _ _ _ E1) as (ex & Hex & Hae).
    exists hasSign, ip, frac, ex. repeat (split; [assumption|]).
    eapply adv_trans; [exact Hs|]. rewrite app_assoc. eapply adv_trans; [exact Ham|].
    rewrite <- (app_nil_r (fl_exp_text ex)). eapply adv_trans; eassumption.
Qed.

(* emit after such a move from start = pos: the text of the item is the bytes consumed *)
Lemma emit_text t l0 l l' bs : adv_by l0 l bs -> l_start l0 = l_pos l0 -> emit inp ilen base t l = Ok l' ->
  exists it, l_out l' = it :: l_out l0 /\ t_typ it = t /\ t_val it = bs /\ l_start l' = l_pos l'.
Proof.
  intros (A1 & A2 & A3 & A4) Hsp. unfold emit. intros H. binv H. injection H as <-. cbn [l_out l_start l_pos].
  eexists. split.
  { apply f_equal2; [reflexivity|]. destruct (ilen <? l_pos l); cbn [set_pos l_out]; exact A2. }
  cbn [t_typ t_val]. split; [reflexivity|]. split; [|reflexivity].
  - unfold slice in E. set (l1 := if ilen <? l_pos l then set_pos l ilen else l) in *.
    destruct ((l_start l1 <? 0) || (l_pos l1 <? l_start l1) || (ilen <? l_pos l1)) eqn:Eb; [discriminate|].
    injection E as <-.
    assert (Hst : l_start l1 = l_pos l0) by (subst l1; destruct (ilen <? l_pos l); cbn [set_pos l_start]; congruence).
    assert (H0 : 0 <= l_pos l0) by lia. specialize (A4 H0).
    pose proof (f_equal (@length _) A4) as HL. rewrite drop_length, app_length, drop_length in HL.
    assert (Hp : l_pos l1 = l_pos l) by (subst l1; destruct (ilen <? l_pos l) eqn:E5; [lia|reflexivity]).
    rewrite Hst, Hp, A4. replace (Z.to_nat (l_pos l - l_pos l0)) with (length bs) by lia. apply take_app_len.
Qed.

(* ================= Part 3: lexNumber, then whole runs ================= *)

(* scanNumber sends nothing *)
Lemma next_out l r l1 : next inp ilen l = Ok (r, l1) -> l_out l1 = l_out l.
Proof. intros H. apply (next_frame inp _ _ _ H). Qed.
Lemma peek_out l r l1 : peek inp ilen l = Ok (r, l1) -> l_out l1 = l_out l.
Proof. intros H. apply (peek_inv _ _ _ H). Qed.
Lemma accept_out set l b l1 : accept inp ilen set l = Ok (b, l1) -> l_out l1 = l_out l.
Proof. intros H. destruct (accept_inv _ _ _ _ H) as (r & l0 & _ & Ha). destruct b; [destruct Ha as (c & _ & _ & Ha)|]; apply Ha. Qed.
Lemma accept_run_out set l b l1 : accept_run inp ilen set l = Ok (b, l1) -> l_out l1 = l_out l.
Proof. intros H. destruct (accept_run_inv _ _ _ _ H) as (bs & _ & Ha & _). apply Ha. Qed.

(* one step of inversion of  <monadic body> = Ok v: [binv] on a bind, a case split on a match, injection on Ok = Ok *)
Ltac inv1 H := lazymatch type of H with
  | bind _ _ = Ok _ => let a := fresh "a" in let E := fresh "E" in apply bind_ok_inv in H; destruct H as (a & E & H); cbn beta in H
  | match ?x with _ => _ end = Ok _ => destruct x
  | Ok _ = Ok _ => injection H; clear H; intros; subst
  | _ = Ok _ => discriminate H
  end.
Ltac outs := repeat match goal with
  | E : next _ _ _ = Ok _ |- _ => apply next_out in E
  | E : peek _ _ _ = Ok _ |- _ => apply peek_out in E
  | E : accept _ _ _ _ = Ok _ |- _ => apply accept_out in E
  | E : accept_run _ _ _ _ = Ok _ |- _ => apply accept_run_out in E
  end.

Definition res_lx (m : N * lx + N * lx) : lx := match m with inl (_, l) => l | inr (_, l) => l end.

Lemma scan_hex_out l1 m : scan_hex inp ilen l1 = Ok m -> l_out (res_lx m) = l_out l1.
Proof. unfold scan_hex. intros H. repeat inv1 H; outs; cbn [res_lx set_pos l_out] in *; congruence. Qed.
Lemma scan_mantissa_out hs l1 m : scan_mantissa inp ilen hs l1 = Ok m -> l_out (res_lx m) = l_out l1.
Proof. unfold scan_mantissa. intros H. repeat inv1 H; outs; cbn [res_lx set_pos l_out] in *; congruence. Qed.
Lemma scan_exponent_out t l4 m : scan_exponent inp ilen t l4 = Ok m -> l_out (res_lx m) = l_out l4.
Proof. unfold scan_exponent. intros H. repeat inv1 H; outs; cbn [res_lx set_pos l_out] in *; congruence. Qed.

Lemma scan_number_out l t ok l1 : scan_number uni_letter uni_digit inp ilen l = Ok (t, ok, l1) -> l_out l1 = l_out l.
Proof.
  unfold scan_number. intros H. inv1 H. destruct a as [hasSign l0]. inv1 H. rename a into hex. inv1 H. rename a into m.
  assert (Hm : l_out (res_lx m) = l_out l0).
  { destruct hex.
    - destruct hasSign; [injection E1 as <-; reflexivity|apply scan_hex_out; exact E1].
    - inv1 E1. apply scan_mantissa_out in E2. destruct a as [[t1 l4]|[t1 l4]]; [injection E1 as <-; exact E2|].
      apply scan_exponent_out in E1. cbn [res_lx] in E2. congruence. }
  apply accept_out in E. destruct m as [[t2 l2]|[t2 l2]]; cbn [res_lx] in Hm; repeat inv1 H; outs; congruence.
Qed.

Lemma lex_number_float_ok l st' l' :
  lex_number uni_letter uni_digit inp ilen base l = Ok (st', l') -> l_start l = l_pos l -> numhead inp l -> fgood l ->
  fgood l' /\ (st' = LInsideTag \/ st' = LDone) /\ (st' = LInsideTag -> l_start l' = l_pos l').
Proof.
  unfold lex_number. intros H Hsp Hnh Hg. binv H. destruct a as [[t ok] l1]. pose proof (scan_number_out _ _ _ _ E) as Ho.
  destruct ok; cbn [negb] in H.
  - unfold emit_to in H. binv H. injection H as <- <-.
    assert (Hout : exists it, l_out a = it :: l_out l /\ l_start a = l_pos a /\ float_ok it).
    { destruct (N.eq_dec t itemFloat) as [->|Hne].
      - destruct (scan_number_inv _ _ E Hnh) as (hs & ip & frac & ex & Hip & Hne & Hfr & Hex & Ha).
        destruct (emit_text _ _ _ _ _ Ha Hsp E0) as (it & Ho' & Ht & Hv & Hs). exists it. repeat (split; [assumption|]).
        intros _. rewrite Hv. apply split_float_shape; assumption.
      - unfold emit in E0. binv E0. injection E0 as <-. cbn [l_out l_start l_pos]. eexists. split.
        { apply f_equal2; [reflexivity|]. destruct (ilen <? l_pos l1); cbn [set_pos l_out]; exact Ho. }
        split; [reflexivity|]. apply nonfloat_ok. exact Hne. }
    destruct Hout as (it & Ho' & Hs & Hf). split; [|split; [left; reflexivity|intros _; exact Hs]].
    unfold fgood. rewrite Ho'. constructor; assumption.
  - binv H. unfold errorf in H. destruct (base + l_pos l1 <? 0); [discriminate|]. injection H as <- <-.
    split; [|split; [right; reflexivity|discriminate]].
    unfold fgood. cbn [l_out]. rewrite Ho. constructor; [apply nonfloat_ok; cbn; discriminate|exact Hg].
Qed.

End Shape.

Lemma run_good uni_letter uni_digit base fuel mode s l :
  lex_run_at uni_letter uni_digit base fuel mode s = Ok l -> fgood l.
Proof.
  unfold lex_run_at. intros H.
  eapply (run_sinv_num uni_letter uni_digit s base (lex_number_float_ok uni_letter uni_digit s base)); [exact H|apply sinv_init].
Qed.

(* every float item of a run of the scanner model has a text split_float accepts *)
Theorem scan_float_shape : forall uni_letter uni_digit base fuel mode s l,
  lex_run_at uni_letter uni_digit base fuel mode s = Ok l ->
  forall t, In t (l_out l) -> t_typ t = itemFloat -> exists fl, split_float (t_val t) = Some fl.
Proof.
  intros ul ud base fuel mode s l H t Hin Ht. pose proof (run_good _ _ _ _ _ _ _ H) as Hg.
  unfold fgood in Hg. rewrite Forall_forall in Hg. exact (Hg t Hin Ht).
Qed.

Corollary scan_float_shape_run : forall uni_letter uni_digit fuel mode s l,
  lex_run uni_letter uni_digit fuel mode s = Ok l ->
  forall t, In t (l_out l) -> t_typ t = itemFloat -> exists fl, split_float (t_val t) = Some fl.
Proof. intros ul ud fuel mode s l. apply scan_float_shape. Qed.

Corollary scan_float_shape_items : forall uni_letter uni_digit fuel mode s its,
  lex_items uni_letter uni_digit fuel mode s = Ok its ->
  forall t, In t its -> t_typ t = itemFloat -> exists fl, split_float (t_val t) = Some fl.
Proof.
  intros ul ud fuel mode s its H t Hin Ht. unfold lex_items in H. apply bind_ok_inv in H. destruct H as (l & Hr & H).
  injection H as <-. apply in_rev in Hin. exact (scan_float_shape_run _ _ _ _ _ _ Hr t Hin Ht).
Qed.

Corollary scan_float_shape_items_at : forall uni_letter uni_digit base fuel s its,
  lex_items_at uni_letter uni_digit base fuel s = Ok its ->
  forall t, In t its -> t_typ t = itemFloat -> exists fl, split_float (t_val t) = Some fl.
Proof.
  intros ul ud base fuel s its H t Hin Ht. unfold lex_items_at in H. apply bind_ok_inv in H. destruct H as (l & Hr & H).
  injection H as <-. apply in_rev in Hin. exact (scan_float_shape _ _ _ _ _ _ _ Hr t Hin Ht).
Qed.

(* float_of_lit never answers FRSyntax, so FRSyntax means exactly "split_float = None" *)
Lemma float_of_lit_not_syntax fl : float_of_lit fl <> FRSyntax.
Proof.
  unfold float_of_lit, round_ratio.
  repeat match goal with
  | |- context [if ?c then _ else _] => destruct c
  | |- context [match ?x with _ => _ end] => destruct x
  end; discriminate.
Qed.

Lemma split_some_not_syntax v fl : split_float v = Some fl -> parse_float_round v <> FRSyntax.
Proof. intros H. unfold parse_float_round. rewrite H. apply float_of_lit_not_syntax. Qed.

(* the FRSyntax branch of parse_float_round is dead for scanner output *)
Corollary scan_float_not_syntax : forall uni_letter uni_digit base fuel mode s l,
  lex_run_at uni_letter uni_digit base fuel mode s = Ok l ->
  forall t, In t (l_out l) -> t_typ t = itemFloat -> parse_float_round (t_val t) <> FRSyntax.
Proof.
  intros ul ud base fuel mode s l H t Hin Ht. destruct (scan_float_shape _ _ _ _ _ _ _ H t Hin Ht) as (fl & Hfl).
  eapply split_some_not_syntax; exact Hfl.
Qed.

(* the same with the parser's name of the item code, on the item lists the parser receives *)
Corollary scan_float_not_syntax_items : forall uni_letter uni_digit fuel mode s its,
  lex_items uni_letter uni_digit fuel mode s = Ok its ->
  forall t, In t its -> t_typ t = pk_itemFloat -> parse_float_round (t_val t) <> FRSyntax.
Proof.
  intros ul ud fuel mode s its H t Hin Ht. change pk_itemFloat with itemFloat in Ht.
  destruct (scan_float_shape_items _ _ _ _ _ _ H t Hin Ht) as (fl & Hfl). eapply split_some_not_syntax; exact Hfl.
Qed.

Corollary scan_float_not_syntax_items_at : forall uni_letter uni_digit base fuel s its,
  lex_items_at uni_letter uni_digit base fuel s = Ok its ->
  forall t, In t its -> t_typ t = pk_itemFloat -> parse_float_round (t_val t) <> FRSyntax.
Proof.
  intros ul ud base fuel s its H t Hin Ht. change pk_itemFloat with itemFloat in Ht.
  destruct (scan_float_shape_items_at _ _ _ _ _ _ H t Hin Ht) as (fl & Hfl). eapply split_some_not_syntax; exact Hfl.
Qed.

Print Assumptions scan_float_shape.
Print Assumptions scan_float_not_syntax_items_at.
