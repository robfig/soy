(* C14, token grammar, bytes: the numeric-literal scanner [num_span] gives the same answer when the text is continued,
   provided the continuation cannot extend the literal. *)
From Soy Require Import Model.Bytes Model.JsGen Spec.JsSyntax Proofs.BytesBase Proofs.JsWfSplitBase.
From Coq Require Import ZifyBool Lia.
Open Scope N_scope.

Definition lead_okf (s : bstr) : bool := match s with 48 :: d :: _ => negb (is_digit d) | _ => true end.
Definition frac_stage (n1 : nat) (r1 : bstr) : nat * bstr :=
  match r1 with
  | x :: r => if x =? 46 then (let k := span is_digit r in if Nat.eqb k 0 then (n1, r1) else (n1 + 1 + k, drop k r)%nat) else (n1, r1)
  | [] => (n1, r1)
  end.
Lemma match46 {A} (x : N) (a c : A) : match x with 46 => a | _ => c end = if x =? 46 then a else c.
Proof. destruct x as [|p]; [reflexivity|]. repeat (destruct p as [p|p|]; try reflexivity). Qed.
Lemma match48 {A} (x : N) (a c : A) : match x with 48 => a | _ => c end = if x =? 48 then a else c.
Proof. destruct x as [|p]; [reflexivity|]. repeat (destruct p as [p|p|]; try reflexivity). Qed.
Definition exp_stage (n2 : nat) (r2 : bstr) : nat * bstr :=
  match r2 with
  | e :: r =>
      if (e =? 101) || (e =? 69) then
        let '(sg, r') := match r with c :: r' => if (c =? 43) || (c =? 45) then (1%nat, r') else (0%nat, r) | [] => (0%nat, r) end in
        let k := span is_digit r' in
        if Nat.eqb k 0 then (n2, r2) else (n2 + 1 + sg + k, drop k r')%nat
      else (n2, r2)
  | [] => (n2, r2)
  end.
Definition fin_stage (lead_ok : bool) (n3 : nat) (r3 : bstr) : option nat :=
  match r3 with
  | c :: _ => if is_ident_part c || negb lead_ok then None else Some n3
  | [] => if lead_ok then Some n3 else None
  end.
Lemma num_span_eq s : num_span s =
  let '(n2, r2) := frac_stage (span is_digit s) (drop (span is_digit s) s) in
  let '(n3, r3) := exp_stage n2 r2 in fin_stage (lead_okf s) n3 r3.
Proof.
  unfold num_span, frac_stage. destruct (drop (span is_digit s) s) as [|x r]; [reflexivity|].
  rewrite match46. reflexivity.
Qed.

Lemma digit_ident x : is_digit x = true -> is_ident_part x = true.
Proof. unfold is_ident_part. intro H. rewrite H. apply orb_true_r. Qed.
Lemma expo_ident x : (x =? 101) || (x =? 69) = true -> is_ident_part x = true.
Proof. intro H. apply orb_prop in H. destruct H as [H|H]; apply N.eqb_eq in H; subst; reflexivity. Qed.

Lemma drop_nil_len k : forall (r : bstr), drop k r = [] -> (k <= length r)%nat -> k = length r.
Proof. induction k as [|k IH]; intros r H L; destruct r as [|c r]; cbn in *; try reflexivity; try discriminate; try lia. f_equal. apply IH; [exact H|lia]. Qed.

(* what a stage leaves: nothing (then the literal reached the end, on a digit), or a tail with the same last byte *)
Definition tail_rel (r1 r2 : bstr) : Prop :=
  (r2 = [] -> r1 = [] \/ (r1 <> [] /\ is_digit (last r1 0) = true)) /\ (r2 <> [] -> r1 <> [] /\ last r2 0 = last r1 0).

Lemma digits_tail k (r : bstr) (x : N) : k = span is_digit r -> k <> O ->
  (drop k r = [] -> is_digit (last (x :: r) 0) = true) /\ (drop k r <> [] -> last (drop k r) 0 = last (x :: r) 0).
Proof.
  intros Ek Hk. pose proof (span_le is_digit r) as Hle. assert (Hr : r <> []) by (intro; subst r; cbn in Ek; lia). split.
  - intro Hd. apply drop_nil_len in Hd; [|lia]. rewrite last_cons_ne by exact Hr. apply last_forallb; [exact Hr|].
    apply span_all_forallb. lia.
  - intro Hd. assert (k < length r)%nat. { destruct (Nat.eq_dec k (length r)) as [Q|Q]; [|lia]. rewrite Q, drop_whole in Hd. congruence. }
    rewrite last_drop by lia. rewrite last_cons_ne by exact Hr. reflexivity.
Qed.

Lemma frac_tail n r1 : tail_rel r1 (snd (frac_stage n r1)).
Proof.
  unfold tail_rel, frac_stage. destruct r1 as [|x r]; [cbn; split; [auto|congruence]|].
  destruct (x =? 46) eqn:Ex.
  - apply N.eqb_eq in Ex. subst x. destruct (Nat.eqb (span is_digit r) 0) eqn:Ek.
    + cbn [snd]. split; [discriminate|]. intros _. split; [discriminate|reflexivity].
    + cbn [snd]. apply Nat.eqb_neq in Ek. destruct (digits_tail _ r 46 eq_refl Ek) as [D1 D2]. split.
      * intro H. right. split; [discriminate|auto].
      * intro H. split; [discriminate|auto].
  - cbn [snd]. split; [discriminate|]. intros _. split; [discriminate|reflexivity].
Qed.


Lemma frac_app n r1 b r' :
  (r1 = [] -> b = 46 -> match r' with d :: _ => is_digit d = false | [] => True end) ->
  (r1 <> [] -> is_digit (last r1 0) = true \/ last r1 0 = 46 -> is_digit b = false) ->
  frac_stage n (r1 ++ b :: r') = (fst (frac_stage n r1), snd (frac_stage n r1) ++ b :: r').
Proof.
  intros H1 H2. destruct r1 as [|x r].
  - cbn [app frac_stage fst snd]. destruct (b =? 46) eqn:Eb; [|reflexivity]. apply N.eqb_eq in Eb.
    specialize (H1 eq_refl Eb). destruct r' as [|d r'']; [reflexivity|]. rewrite span_head_false by exact H1. reflexivity.
  - cbn [app]. unfold frac_stage. destruct (x =? 46) eqn:Ex; [|reflexivity].
    apply N.eqb_eq in Ex. subst x.
    assert (Es : span is_digit (r ++ b :: r') = span is_digit r).
    { apply span_app_gen. intro Q. apply H2; [discriminate|]. destruct r as [|c2 r2]; [right; reflexivity|].
      left. rewrite last_cons_ne by discriminate. apply last_forallb; [discriminate|]. apply span_all_forallb. exact Q. }
    rewrite Es. destruct (Nat.eqb (span is_digit r) 0); [reflexivity|]. cbn [fst snd].
    rewrite drop_app_le by apply span_le. reflexivity.
Qed.

Lemma exp_tail n r2 : tail_rel r2 (snd (exp_stage n r2)).
Proof.
  unfold tail_rel, exp_stage. destruct r2 as [|e r]; [cbn; split; [auto|congruence]|].
  assert (Same : forall (r3 : bstr), r3 = e :: r -> (r3 = [] -> e :: r = [] \/ e :: r <> [] /\ is_digit (last (e :: r) 0) = true) /\ (r3 <> [] -> e :: r <> [] /\ last r3 0 = last (e :: r) 0)).
  { intros r3 ->. split; [discriminate|]. intros _. split; [discriminate|reflexivity]. }
  destruct ((e =? 101) || (e =? 69)); [|apply Same; reflexivity].
  destruct r as [|c r0].
  - cbn. apply Same. reflexivity.
  - destruct ((c =? 43) || (c =? 45)).
    + destruct (Nat.eqb (span is_digit r0) 0) eqn:Ek; [apply Same; reflexivity|]. cbn [snd].
      apply Nat.eqb_neq in Ek. destruct (digits_tail _ r0 c eq_refl Ek) as [D1 D2].
      assert (Hr0 : r0 <> []) by (intro; subst r0; cbn in Ek; congruence).
      split; intro H.
      * right. split; [discriminate|]. rewrite last_cons_ne by discriminate. auto.
      * split; [discriminate|]. rewrite (last_cons_ne e) by discriminate. auto.
    + destruct (Nat.eqb (span is_digit (c :: r0)) 0) eqn:Ek; [apply Same; reflexivity|]. cbn [snd].
      apply Nat.eqb_neq in Ek. destruct (digits_tail _ (c :: r0) e eq_refl Ek) as [D1 D2].
      split; intro H.
      * right. split; [discriminate|]. auto.
      * split; [discriminate|]. auto.
Qed.

Lemma exp_app n r2 b r' :
  (r2 = [] -> (b =? 101) || (b =? 69) = false) ->
  (r2 <> [] -> is_digit (last r2 0) = true -> is_digit b = false) ->
  (match snd (exp_stage n r2) with c :: _ => is_ident_part c = false | [] => True end) ->
  exp_stage n (r2 ++ b :: r') = (fst (exp_stage n r2), snd (exp_stage n r2) ++ b :: r').
Proof.
  intros H1 H2 Hok. destruct r2 as [|e r].
  - cbn [app exp_stage fst snd]. rewrite (H1 eq_refl). reflexivity.
  - cbn [app]. unfold exp_stage in *. destruct ((e =? 101) || (e =? 69)) eqn:Ee; [|reflexivity].
    assert (Bad : forall A (x : A), is_ident_part e = false -> x = x -> False).
    { intros A x Hx _. rewrite (expo_ident e Ee) in Hx. discriminate. }
    destruct r as [|c r0].
    + cbn in Hok. exfalso. exact (Bad _ tt Hok eq_refl).
    + cbn [app]. destruct ((c =? 43) || (c =? 45)).
      * assert (Es : span is_digit (r0 ++ b :: r') = span is_digit r0).
        { apply span_app_gen. intro Q. destruct r0 as [|c2 r2].
          - cbn in Hok. exfalso. exact (Bad _ tt Hok eq_refl).
          - apply H2; [discriminate|]. rewrite !last_cons_ne by discriminate. rewrite <- (last_cons_ne c) by discriminate.
            rewrite last_cons_ne by discriminate. apply last_forallb; [discriminate|]. apply span_all_forallb. exact Q. }
        rewrite Es. destruct (Nat.eqb (span is_digit r0) 0).
        -- cbn in Hok. exfalso. exact (Bad _ tt Hok eq_refl).
        -- cbn [fst snd]. rewrite drop_app_le by apply span_le. reflexivity.
      * assert (Es : span is_digit ((c :: r0) ++ b :: r') = span is_digit (c :: r0)).
        { apply span_app_gen. intro Q. apply H2; [discriminate|]. rewrite last_cons_ne by discriminate.
          apply last_forallb; [discriminate|]. apply span_all_forallb. exact Q. }
        change (c :: r0 ++ b :: r') with ((c :: r0) ++ b :: r'). rewrite Es. destruct (Nat.eqb (span is_digit (c :: r0)) 0).
        -- cbn in Hok. exfalso. exact (Bad _ tt Hok eq_refl).
        -- cbn [fst snd]. rewrite drop_app_le by apply span_le. reflexivity.
Qed.

Lemma lead_okf_app s b r' : s <> [] -> (is_digit (last s 0) = true -> is_digit b = false) -> is_digit (hd 0 s) = true ->
  lead_okf (s ++ b :: r') = lead_okf s.
Proof.
  intros Hs H Hd. destruct s as [|x [|y s']]; [congruence| |reflexivity]. cbn [app lead_okf]. cbn in H, Hd.
  rewrite !match48. destruct (x =? 48); [|reflexivity]. rewrite (H Hd). reflexivity.
Qed.

Theorem num_span_app s b r' k :
  s <> [] -> is_digit (hd 0 s) = true -> num_span s = Some k ->
  (is_ident_part (last s 0) = true -> is_ident_part b = false) ->
  (forallb is_digit s = true -> b = 46 -> match r' with d :: _ => is_digit d = false | [] => True end) ->
  (last s 0 = 46 -> is_digit b = false) ->
  num_span (s ++ b :: r') = Some k.
Proof.
  intros Hs Hh Hk H1 H2 H3. rewrite num_span_eq in *.
  assert (Hdig : is_digit (last s 0) = true -> is_ident_part b = false /\ is_digit b = false /\ (b =? 101) || (b =? 69) = false).
  { intro Hd. pose proof (H1 (digit_ident _ Hd)) as Hb. split; [exact Hb|]. split.
    - destruct (is_digit b) eqn:E; [|reflexivity]. rewrite (digit_ident _ E) in Hb. discriminate.
    - destruct ((b =? 101) || (b =? 69)) eqn:E; [|reflexivity]. rewrite (expo_ident _ E) in Hb. discriminate. }
  pose proof (span_le is_digit s) as Hle.
  assert (Es : span is_digit (s ++ b :: r') = span is_digit s).
  { apply span_app_gen. intro Q. apply Hdig. apply last_forallb; [exact Hs|]. apply span_all_forallb. exact Q. }
  rewrite Es. rewrite drop_app_le by exact Hle.
  set (n1 := span is_digit s) in *. set (r1 := drop n1 s) in *.
  assert (R1 : (r1 = [] -> forallb is_digit s = true) /\ (r1 <> [] -> last r1 0 = last s 0)).
  { split.
    - intro E. apply span_all_forallb. apply (drop_nil_len n1 s E Hle).
    - intro E. unfold r1. apply last_drop. destruct (Nat.eq_dec n1 (length s)) as [Q|Q]; [|lia].
      exfalso. apply E. unfold r1. rewrite Q. apply drop_whole. }
  destruct R1 as [R1a R1b].
  rewrite frac_app.
  2:{ intros E. apply H2. apply R1a. exact E. }
  2:{ intros E [Hd|Hd]; rewrite (R1b E) in Hd; [apply Hdig; exact Hd|apply H3; exact Hd]. }
  pose proof (frac_tail n1 r1) as [T1a T1b]. destruct (frac_stage n1 r1) as [n2 r2]. cbn [fst snd] in *.
  assert (R2 : (r2 = [] -> is_digit (last s 0) = true) /\ (r2 <> [] -> last r2 0 = last s 0)).
  { split.
    - intro E. destruct (T1a E) as [E1|[E1 Hd]].
      + apply last_forallb; [exact Hs|]. apply R1a. exact E1.
      + rewrite <- (R1b E1). exact Hd.
    - intro E. destruct (T1b E) as [E1 El]. rewrite El. apply R1b. exact E1. }
  destruct R2 as [R2a R2b].
  pose proof (exp_tail n2 r2) as [T2a T2b].
  assert (Hok : match snd (exp_stage n2 r2) with c :: _ => is_ident_part c = false | [] => True end).
  { destruct (exp_stage n2 r2) as [n3 r3]. cbn [snd]. unfold fin_stage in Hk. destruct r3 as [|c r3']; [exact I|].
    destruct (is_ident_part c); [discriminate Hk|reflexivity]. }
  rewrite exp_app; [| | |exact Hok].
  2:{ intro E. apply Hdig. apply R2a. exact E. }
  2:{ intros E Hd. rewrite (R2b E) in Hd. apply Hdig. exact Hd. }
  destruct (exp_stage n2 r2) as [n3 r3]. cbn [fst snd] in *.
  rewrite lead_okf_app; [|exact Hs|intro Hd; apply Hdig; exact Hd|exact Hh].
  destruct r3 as [|c r3'].
  - cbn [app fin_stage] in *. assert (Hd : is_digit (last s 0) = true).
    { destruct (T2a eq_refl) as [E2|[E2 Hd]]; [apply R2a; exact E2|rewrite <- (R2b E2); exact Hd]. }
    destruct (Hdig Hd) as (Hb & _). rewrite Hb. cbn [orb]. destruct (lead_okf s); [exact Hk|discriminate Hk].
  - cbn [app fin_stage] in *. exact Hk.
Qed.
