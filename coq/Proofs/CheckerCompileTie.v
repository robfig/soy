(* Two Gallina models of parsepasses.CheckDataRefs exist: Model/Compile.v (C13:
   fuel recursion over nodes through Children(), with the Go map order of
   MapLiteralNode.Children as a parameter [ko]) and Model/Checker.v (C07: over
   the view of Model/RefView.v).  This file proves that they are the same
   function, so that C07's check_iff_wf speaks about the accept/reject decision
   that C13 proves order-independent.

   [listed ko n]: every map literal below n lists its items in the order in
   which [ko] visits them (after commit b9a4d3a Children() visits the keys in
   sorted order, and the AST dump lists the items sorted by key: then
   [map_values ko items = map snd items]). *)
From Coq Require Import Lia Permutation.
From Soy Require Import Model.Bytes Model.Num Model.Values Model.Outcome Model.Ast Model.MsgId Model.RefView Model.Checker
  Model.Compile Model.CheckerRun Generated.Tables Spec.Wf Spec.Determinism Spec.Safety Proofs.ValueProofs Proofs.CheckerProofs Proofs.CompileProofs Proofs.CompileFuelProofs.
Open Scope N_scope.

Definition conv_b (v : vbinding) : binding := {| b_name := vb_name v; b_let := vb_let v; b_used := vb_used v |}.
Definition conv (st : tcs) : cstate := {| vars := map conv_b (tc_vars st); used_keys := tc_used st |}.

(* the two runs agree (an out-of-fuel run of the fuel model says nothing) *)
Definition rel (r : check_err + tcs) (c : cres) : Prop :=
  match r with
  | inl CKOutOfFuel => True
  | inl e => c = CR (cls e)
  | inr st' => c = CO (conv st')
  end.

Lemma mem_s_contains k l : mem_s k l = contains l k.
Proof.
  unfold mem_s. induction l as [|y r IH]; cbn [existsb contains]; [reflexivity|]. rewrite IH, (bstr_eqb_sym k y). reflexivity.
Qed.

Lemma mark_conv key vs : mark key (map conv_b vs) = option_map (map conv_b) (mark_used key vs).
Proof.
  induction vs as [|v r IH]; cbn [mark mark_used map option_map]; [reflexivity|]. cbn [conv_b b_name].
  destruct (bstr_eqb (vb_name v) key); [reflexivity|]. rewrite IH. destruct (mark_used key r); reflexivity.
Qed.

(* the Go code collects the offenders and tests the list for emptiness *)
Lemma filter_nil_forallb {A} (f : A -> bool) l :
  forallb f l = match filter (fun x => negb (f x)) l with [] => true | _ :: _ => false end.
Proof. induction l as [|x r IH]; cbn [filter forallb]; [reflexivity|]. destruct (f x); [exact IH | reflexivity]. Qed.

Lemma not_mem_s_filter l xs : filter (fun k => negb (mem_s k l)) xs = filter (fun k => negb (contains l k)) xs.
Proof. apply filter_ext. intros a. rewrite mem_s_contains. reflexivity. Qed.

Lemma existsb_filter_rev {A} (g : A -> bool) l :
  existsb g l = match filter g (rev l) with [] => false | _ :: _ => true end.
Proof.
  induction l as [|x r IH]; [reflexivity|]. cbn [rev existsb filter]. rewrite filter_app, IH. cbn [filter].
  destruct (filter g (rev r)), (g x); reflexivity.
Qed.

Lemma existsb_conv (f : binding -> bool) vs : existsb f (map conv_b vs) = existsb (fun v => f (conv_b v)) vs.
Proof. induction vs as [|v r IH]; cbn [existsb map]; [reflexivity|]. rewrite IH. reflexivity. Qed.

Lemma k_consts : k_ij = RefView.s_ij /\ loop_func_names = [k_index; k_is_first; k_is_last].
Proof. split; reflexivity. Qed.

Section Tie.
Variable ko : korder.
Variable ts : list template.
Variable params : list bstr.
Notation lookup := (find_template ts).

Lemma visit_key_tie st key : rel (Compile.visit_key params st key) (Checker.visit_key params key (conv st)).
Proof.
  unfold Compile.visit_key, Checker.visit_key. change k_ij with RefView.s_ij.
  destruct (bstr_eqb key RefView.s_ij); [reflexivity|].
  cbn [conv vars]. rewrite mark_conv. destruct (mark_used key (tc_vars st)); cbn [option_map rel]; [reflexivity|].
  rewrite mem_s_contains. destruct (contains params key); reflexivity.
Qed.

Lemma call_param_keys_tie ps : call_param_keys ps = all_keys (map param_key ps).
Proof.
  induction ps as [|p r IH]; [reflexivity|]. destruct p; cbn [call_param_keys map param_key all_keys]; try reflexivity;
    rewrite IH; reflexivity.
Qed.

Lemma check_call_tie st pos name alldata data ps :
  rel (Compile.check_call lookup params st pos name alldata data ps)
      (Checker.check_call ts params name alldata (match data with Some _ => true | None => false end) (map param_key ps) (conv st)).
Proof.
  unfold Compile.check_call, Checker.check_call. destruct (find_template ts name) as [callee|]; [|reflexivity].
  rewrite call_param_keys_tie. destruct (all_keys (map param_key ps)) as [keys|]; [|reflexivity].
  rewrite (filter_ext _ _ (fun a => mem_s_contains a (map fst (t_params callee)))), !filter_nil_forallb, <- !not_mem_s_filter.
  destruct (filter _ (_ ++ keys)); [|reflexivity]. destruct data; [reflexivity|]. destruct (filter _ _); reflexivity.
Qed.

Lemma loop_names_k fname : bstr_eqb fname k_index || bstr_eqb fname k_is_first || bstr_eqb fname k_is_last = contains loop_func_names fname.
Proof.
  unfold loop_func_names. cbn [contains]. rewrite orb_false_r, orb_assoc.
  rewrite (bstr_eqb_sym fname k_index), (bstr_eqb_sym fname k_is_first), (bstr_eqb_sym fname k_is_last). reflexivity.
Qed.

Lemma check_loop_func_tie st fname args :
  Checker.check_loop_func fname (loop_arg args) (conv st)
  = match Compile.check_loop_func st fname args with Some e => CR (cls e) | None => CO (conv st) end.
Proof.
  unfold Checker.check_loop_func, Compile.check_loop_func. rewrite loop_names_k.
  destruct (contains loop_func_names fname); [|reflexivity].
  destruct args as [|a [|a2 r]]; [reflexivity| |destruct a; try reflexivity; destruct access; reflexivity].
  destruct a; try reflexivity.
  destruct access as [|ac acs]; [|reflexivity].
  cbn [loop_arg conv vars]. rewrite existsb_conv. cbn [conv_b b_let b_name]. destruct (existsb _ (tc_vars st)); reflexivity.
Qed.

(* the pop at the end of recurse *)
Lemma pop_tie initial st :
  rel (pop_block initial st)
      (let n := (length (vars (conv st)) - initial)%nat in
       if existsb (fun v => b_let v && negb (b_used v)) (firstn n (vars (conv st))) then CR RUnusedLet
       else CO (set_vars (conv st) (skipn n (vars (conv st))))).
Proof.
  unfold pop_block. cbn [conv vars]. rewrite map_length, firstn_map, existsb_conv, existsb_filter_rev. cbv zeta.
  cbn [conv_b b_let b_used]. destruct (filter _ (rev _)); [|reflexivity].
  cbn [map rel]. unfold conv, set_vars. cbn [vars used_keys tc_vars tc_used]. rewrite skipn_map. reflexivity.
Qed.

Inductive listed : node -> Prop :=
| listed_intro n :
    (forall p items, n = NMapLit p items -> map_values ko items = map snd items) ->
    Forall listed (children ko n) -> listed n.

Lemma listed_kids n : listed n -> Forall listed (children ko n).
Proof. intros H. inversion H; assumption. Qed.

Notation chkv := (fun c => chk ts params (view c)).

Lemma opt_kids (o : option node) : map (chk ts params) (match o with Some x => [view x] | None => [] end) = map chkv (olist o).
Proof. destruct o; reflexivity. Qed.

(* the children's checks of the view are the checks of the views of Children() *)
Lemma kids_tie n : listed n -> map (chk ts params) (rt_kids (view n)) = map chkv (children ko n).
Proof.
  intros H. inversion H as [? Hm _]; subst.
  destruct n; cbn [view rt_kids children]; rewrite ?map_map, ?map_app, ?map_map, ?opt_kids; cbn [map app]; rewrite ?map_map;
    try reflexivity.
  - (* map literal *)
    rewrite (Hm _ _ eq_refl). rewrite map_map. apply map_ext. intros [k e]. reflexivity.
  - (* for *) rewrite opt_kids. reflexivity.
  - (* plural: Default is a ListNode of its own; the checker treats a block like any other parent *)
    rewrite !map_app, !map_map. reflexivity.
Qed.

Lemma rel_err e c : rel (inl e) c -> e <> CKOutOfFuel -> c = CR (cls e).
Proof. destruct e; cbn [rel]; intros H Hn; try exact H. congruence. Qed.

(* a run that ends in an error, or continues with [k] *)
Lemma rel_bind (r : check_err + tcs) (c : cres) (k : tcs -> check_err + tcs) (k' : cstate -> cres) :
  rel r c -> (forall st', rel (k st') (k' (conv st'))) ->
  rel (match r with inr st' => k st' | inl e => inl e end) (cbind c k').
Proof.
  intros H Hk. destruct r as [e|st'].
  - destruct e; cbn [rel] in *; try (rewrite H; reflexivity). exact I.
  - cbn [rel] in H. rewrite H. cbn [cbind]. apply Hk.
Qed.

Section Step.
Variable w : tcs -> node -> check_err + tcs.
Hypothesis Hw : forall st n, listed n -> rel (w st n) (chk ts params (view n) (conv st)).

Lemma check_seq_tie l : Forall listed l -> forall st,
  rel (check_seq w st l) (run_each (map chkv l) (conv st)).
Proof.
  induction 1 as [|n r Hn Hr IH]; intros st; cbn [check_seq map run_each]; [reflexivity|].
  apply rel_bind; [apply Hw; exact Hn | exact IH].
Qed.

Lemma check_block_tie n : listed n -> forall st,
  rel (check_block ko w st n) (chk_recurse (map (chk ts params) (rt_kids (view n))) (conv st)).
Proof.
  intros Hn st. unfold check_block, chk_recurse. rewrite (kids_tie n Hn).
  apply rel_bind; [apply check_seq_tie, listed_kids, Hn|]. intros st'.
  pose proof (pop_tie (length (tc_vars st)) st') as Hp. cbn [conv vars] in Hp |- *. rewrite map_length in Hp |- *.
  rewrite map_length. exact Hp.
Qed.

Lemma check_body_tie n : listed n -> forall st,
  rel (check_body ko lookup params w st n) (chk ts params (view n) (conv st)).
Proof.
  intros Hn st. pose proof (check_block_tie n Hn) as Hb.
  destruct n; cbn [check_body]; try exact (Hb st); cbn [view chk chk_body]; cbn [rt_kids view] in Hb.
  - (* function *)
    rewrite check_loop_func_tie. destruct (Compile.check_loop_func st name args) as [e|]; [destruct e; reflexivity | exact (Hb st)].
  - (* data reference *) apply rel_bind; [apply visit_key_tie | exact Hb].
  - (* for *)
    pose proof (listed_kids _ Hn) as Hk. cbn [children] in Hk.
    inversion Hk as [|? ? Hl Hk1]; subst. inversion Hk1 as [|? ? Hb2 Hie]; subst. cbn [map].
    apply rel_bind; [apply Hw, Hl | intros st1]. apply rel_bind; [apply Hw, Hb2 | intros st2].
    assert (Hc : set_vars (conv st2) (tl (vars (conv st2))) = conv {| tc_vars := tl (tc_vars st2); tc_used := tc_used st2 |}).
    { unfold set_vars, conv. cbn [vars used_keys tc_vars tc_used]. destruct (tc_vars st2); reflexivity. }
    rewrite Hc. destruct ifempty as [ie|]; cbn [map run_each]; [|reflexivity].
    inversion Hie; subst.
    pose proof (Hw {| tc_vars := tl (tc_vars st2); tc_used := tc_used st2 |} ie ltac:(assumption)) as H3.
    destruct (w _ ie) as [[]|st3]; cbn [rel] in *; rewrite ?H3; reflexivity.
  - (* call *) apply rel_bind; [apply check_call_tie | exact Hb].
  - (* let value *)
    change k_ij with RefView.s_ij. destruct (bstr_eqb name RefView.s_ij); [reflexivity|].
    apply rel_bind; [exact (Hb st) | reflexivity].
  - (* let content *)
    change k_ij with RefView.s_ij. destruct (bstr_eqb name RefView.s_ij); [reflexivity|].
    apply rel_bind; [exact (Hb st) | reflexivity].
  - (* header param *) reflexivity.
Qed.
End Step.

Theorem check_node_tie fuel : forall st n, listed n ->
  rel (check_node ko lookup params fuel st n) (chk ts params (view n) (conv st)).
Proof.
  induction fuel as [|f IH]; intros st n Hn; cbn [check_node]; [exact I|].
  apply check_body_tie; assumption.
Qed.
End Tie.

Definition verdict_of (o : option check_err) : verdict :=
  match o with None => Accept | Some e => Reject (cls e) end.

(* one iteration of the loop of CheckDataRefs: the two models give the same verdict, with the same class of error *)
Theorem check_template_tie ko ts t : listed ko (t_node t) ->
  verdict_of (check_template ko (find_template ts) t) = check_template_node ts (map fst (t_params t)) (t_node t).
Proof.
  intros Hl. unfold check_template, check_template_node.
  pose proof (check_node_tie ko ts (map fst (t_params t)) (walk_fuel (t_node t)) {| tc_vars := []; tc_used := [] |} (t_node t) Hl) as H.
  pose proof (check_node_nofuel ko (find_template ts) (map fst (t_params t)) (walk_fuel (t_node t)) (t_node t)
                (rank_lt_walk_fuel (t_node t)) {| tc_vars := []; tc_used := [] |}) as Hf.
  change (conv {| tc_vars := []; tc_used := [] |}) with {| vars := []; used_keys := [] |} in H.
  destruct (check_node ko (find_template ts) (map fst (t_params t)) (walk_fuel (t_node t)) _ (t_node t)) as [e|st].
  - apply rel_err in H; [|intros ->; apply Hf; reflexivity]. rewrite H. reflexivity.
  - cbn [rel] in H. rewrite H. cbn [conv used_keys].
    rewrite filter_nil_forallb, <- not_mem_s_filter. destruct (filter _ _); reflexivity.
Qed.

Lemma check_templates_tie ko all ts : Forall (fun t => listed ko (t_node t)) ts ->
  verdict_of_failure (first_failure (check_template ko (find_template all)) ts) = check_templates all ts.
Proof.
  induction 1 as [|t r Ht Hr IH]; cbn [first_failure check_templates]; [reflexivity|].
  rewrite <- (check_template_tie ko all t Ht).
  destruct (check_template ko (find_template all) t) as [e|]; cbn [verdict_of verdict_of_failure]; [reflexivity | exact IH].
Qed.

(* CheckDataRefs: the model used by C13 (first failing template in registry order, children of a map literal in the
   order [ko]) and the model used by C07 (over the view of RefView.v) return the same verdict *)
Theorem check_data_refs_tie ko reg : Forall (fun t => listed ko (t_node t)) (r_templates reg) ->
  verdict_of_failure (first_failure (check_template ko (find_template (r_templates reg))) (r_templates reg)) = check_registry reg.
Proof. intros H. apply check_templates_tie. exact H. Qed.

(* [listed] holds of the trees the parser builds and the AST dump transmits: after b9a4d3a
   MapLiteralNode.Children() visits the keys in sorted order, whatever order Go's map iteration
   produces them in ([sorted_after ko0] for any permutation ko0), and the model lists the items of a
   map literal by strictly increasing key *)

Lemma sorted_head_lt' r : forall k, keys_sortedb (k :: r) = true -> forall k', In k' r -> bstr_ltb k k' = true.
Proof.
  induction r as [|k1 r IH]; intros k Hs k' Hin; [destruct Hin|].
  cbn [keys_sortedb] in Hs. apply andb_true_iff in Hs as [H1 H2]. destruct Hin as [<-|Hin]; [exact H1|].
  eapply bstr_ltb_trans; [exact H1|]. apply IH; [exact H2 | exact Hin].
Qed.

Lemma sort_sorted l : keys_sortedb l = true -> sort_strings l = l.
Proof.
  induction l as [|k r IH]; intros Hs; [reflexivity|]. cbn [keys_sortedb] in Hs. apply andb_true_iff in Hs as [H1 H2].
  change (sort_strings (k :: r)) with (insert_sorted k (sort_strings r)). rewrite (IH H2).
  destruct r as [|k' r']; [reflexivity|]. cbn [insert_sorted]. unfold bstr_leb. rewrite (bstr_ltb_asym _ _ H1). reflexivity.
Qed.

Lemma bstr_ltb_ne x y : bstr_ltb x y = true -> bstr_eqb y x = false.
Proof.
  intros H. destruct (bstr_eqb_spec y x) as [->|]; [|reflexivity]. rewrite bstr_ltb_irrefl in H. discriminate.
Qed.

Lemma flat_map_ext_In {A B} (f g : A -> list B) l : (forall a, In a l -> f a = g a) -> flat_map f l = flat_map g l.
Proof.
  induction l as [|a r IH]; intros H; [reflexivity|]. cbn [flat_map]. rewrite (H a (or_introl eq_refl)), IH; [reflexivity|].
  intros a' Ha. apply H. right. exact Ha.
Qed.

Lemma map_values_listed (items : list (bstr * node)) : keys_sortedb (map fst items) = true ->
  flat_map (fun k => match assoc_s k items with Some v => [v] | None => [] end) (map fst items) = map snd items.
Proof.
  induction items as [|[k v] r IH]; intros Hs; [reflexivity|]. cbn [map fst snd flat_map assoc_s].
  rewrite bstr_eqb_refl. cbn [app]. f_equal.
  cbn [map fst] in Hs. pose proof (sorted_head_lt' _ _ Hs) as Hlt. cbn [keys_sortedb] in Hs. apply andb_true_iff in Hs as [_ Hs].
  rewrite <- (IH Hs). apply flat_map_ext_In. intros k' Hin. cbn [assoc_s]. rewrite (bstr_ltb_ne _ _ (Hlt k' Hin)). reflexivity.
Qed.

Lemma map_values_sorted ko0 items : (forall ks, Permutation (ko0 ks) ks) -> keys_sortedb (map fst items) = true ->
  map_values (sorted_after ko0) items = map snd items.
Proof.
  intros Hp Hs. unfold map_values, sorted_after. rewrite (sort_strings_perm _ _ (Hp (map fst items))), (sort_sorted _ Hs).
  apply map_values_listed. exact Hs.
Qed.

Ltac split_andb :=
  repeat match goal with H : _ && _ = true |- _ => apply andb_true_iff in H; destruct H end.

(* [node_all] is inherited by the children, in whatever order they are visited *)
Lemma node_all_children P ko n : (forall p l, P (NList p l) = true) ->
  (forall p ps c, P (NSoyDoc p ps) = true -> In c ps -> Spec.Safety.node_all P c = true) ->
  Spec.Safety.node_all P n = true ->
  Forall (fun c => Spec.Safety.node_all P c = true) (children ko n).
Proof.
  intros HP HD H. apply Forall_forall. intros c Hc.
  destruct n; cbn [children] in Hc; try (destruct Hc; fail); cbn [Spec.Safety.node_all] in H; split_andb;
    repeat match goal with
           | H : In _ (_ :: _) |- _ => destruct H as [<-|H]
           | H : In _ (_ ++ _) |- _ => apply in_app_or in H; destruct H as [H|H]
           | H : In _ [] |- _ => destruct H
           | H : In _ (olist ?o) |- _ => destruct o; cbn [olist] in H
           end;
    try assumption;
    try (match goal with H : forallb _ ?l = true, Hi : In c ?l |- _ => rewrite forallb_forall in H; exact (H c Hi) end).
  - (* map literal *)
    apply map_values_In in Hc as (k & Hk).
    match goal with H : forallb _ items = true |- _ => rewrite forallb_forall in H; exact (H (k, c) Hk) end.
  - (* plural: the default is a ListNode *)
    cbn [Spec.Safety.node_all]. rewrite HP. assumption.
  - (* plural case: the body is a ListNode *)
    cbn [Spec.Safety.node_all]. rewrite HP. assumption.
  - (* soydoc *) eapply HD; eassumption.
Qed.

Lemma soydoc_params_sorted p ps c : map_sorted (NSoyDoc p ps) = true -> In c ps -> Spec.Safety.node_all map_sorted c = true.
Proof.
  cbn [map_sorted]. intros H Hc. rewrite forallb_forall in H. specialize (H c Hc). destruct c; try discriminate. reflexivity.
Qed.

Lemma listed_of_sorted ko0 : (forall ks, Permutation (ko0 ks) ks) ->
  forall n, maps_sorted n = true -> listed (sorted_after ko0) n.
Proof.
  intros Hp. assert (H : forall k n, (rank n < k)%nat -> maps_sorted n = true -> listed (sorted_after ko0) n).
  { induction k as [|k IH]; intros n Hr Hs; [lia|]. constructor.
    - intros p items ->. apply map_values_sorted; [exact Hp|].
      unfold maps_sorted in Hs. cbn [Spec.Safety.node_all] in Hs. apply andb_true_iff in Hs as [Hs _]. exact Hs.
    - pose proof (node_all_children map_sorted (sorted_after ko0) n (fun _ _ => eq_refl) soydoc_params_sorted Hs) as Hk.
      rewrite Forall_forall in Hk |- *. intros c Hc. apply IH; [|apply Hk; exact Hc].
      pose proof (children_rank (sorted_after ko0) n c Hc). lia. }
  intros n. apply (H (S (rank n))). lia.
Qed.

(* the tie as C07 and C13 use it *)
Theorem check_data_refs_models_agree ko0 reg :
  (forall ks, Permutation (ko0 ks) ks) ->
  forallb (fun t => maps_sorted (t_node t)) (r_templates reg) = true ->
  verdict_of_failure (first_failure (check_template (sorted_after ko0) (find_template (r_templates reg))) (r_templates reg))
  = check_registry reg.
Proof.
  intros Hp Hs. apply check_data_refs_tie. apply Forall_forall. intros t Ht. apply listed_of_sorted; [exact Hp|].
  rewrite forallb_forall in Hs. exact (Hs t Ht).
Qed.

Corollary check_registry_c13_agrees reg : registry_maps_sorted reg = true -> check_registry_c13 reg = check_registry reg.
Proof. intros H. apply (check_data_refs_models_agree (fun ks => ks)); [intros ks; apply Permutation_refl | exact H]. Qed.
