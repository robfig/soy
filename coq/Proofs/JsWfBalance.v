(* C14, token grammar: every token list the recogniser accepts is bracket
   balanced.  The recogniser's stack, projected to the brackets its frames
   stand for, IS the stack of the bracket checker. *)
From Soy Require Import Model.Bytes Model.JsGen.
From Soy Require Import Spec.JsSyntax Proofs.JsWfFlag.
Open Scope N_scope.

Definition br_of_frame (f : frame) : list punct :=
  match f with
  | KParen | KCall | KIfCond | KSwCond | KFor1 | KFor2 | KFor3 | KParams => [PLPar]
  | KIdx | KArr => [PLBrk]
  | KObj | KImport | KBlock _ => [PLBrc]
  | KTern | KStmtE | KCase => []
  end.
Definition brs (s : list frame) : list punct := flat_map br_of_frame s.

Definition pat_plain (p : pat) : bool :=
  match p with
  | PT (TP PLPar) | PT (TP PRPar) | PT (TP PLBrk) | PT (TP PRBrk) | PT (TP PLBrc) | PT (TP PRBrc) => false
  | _ => true
  end.
Definition push_brs (push : option frame) : list punct := match push with Some f => br_of_frame f | None => [] end.

(* the fixed token sequences the recogniser expects: a single opening bracket that pushes its own frame, or
   bracket-free tokens that push a bracket-free frame *)
Fixpoint mode_wf (m : mode) : Prop :=
  match m with
  | MSeq ps push next =>
      ((exists p, ps = [PT (TP p)] /\ push_brs push = [p] /\ (p = PLPar \/ p = PLBrk \/ p = PLBrc))
       \/ (forallb pat_plain ps = true /\ push_brs push = []))
      /\ mode_wf next
  | _ => True
  end.

Lemma bal_plain t stk : (forall p, t = TP p -> p <> PLPar /\ p <> PRPar /\ p <> PLBrk /\ p <> PRBrk /\ p <> PLBrc /\ p <> PRBrc) ->
  bal_step stk t = Some stk.
Proof.
  intro H. destruct t as [x|k x|x| |p|nlt]; try reflexivity.
  destruct (H p eq_refl) as (H1 & H2 & H3 & H4 & H5 & H6). destruct p; try reflexivity; congruence.
Qed.

Lemma pat_plain_tok p t : pat_plain p = true -> pat_match p t = true ->
  forall q, t = TP q -> q <> PLPar /\ q <> PRPar /\ q <> PLBrk /\ q <> PRBrk /\ q <> PLBrc /\ q <> PRBrc.
Proof.
  intros Hp Hm q ->. destruct p as [t'| |]; cbn in Hm; try discriminate.
  destruct t' as [x|k x|x| |p'|nlt]; cbn in Hm; try discriminate.
  destruct p', q; cbn in Hp, Hm; try discriminate; repeat split; discriminate.
Qed.

Ltac wf_solve :=
  cbn;
  repeat match goal with
         | |- _ /\ _ => split
         | |- True => exact I
         | |- Some _ = Some _ => reflexivity
         | |- (exists p, _) \/ _ =>
             first [ right; split; reflexivity
                   | left; eexists; split; [reflexivity|]; cbn; split; [reflexivity|]; auto; fail ]
         end.
Ltac crackb H := crack H; wf_solve.

Lemma js_step_bal md m s t m' s' d : mode_wf m -> js_step md m s t = Some (m', s', d) -> mode_wf m' /\ bal_step (brs s) t = Some (brs s').
Proof.
  intros W. destruct m; cbn [js_step]; unfold step_stmt, step_want, step_have, cfg, seq1, m_params.
  16:{ (* MSeq *)
    cbn [mode_wf] in W. destruct W as [W Wn]. destruct ps as [|p ps]; [discriminate|].
    destruct (pat_match p t) eqn:Em; [|discriminate].
    destruct W as [(q & Eps & Epush & Hq)|(Hpl & Epush)].
    + inversion Eps; subst. unfold cfg. intro H; inversion H; subst. split; [exact Wn|].
      cbn in Em. destruct t as [x|k x|x| |p'|nlt]; try discriminate. cbn in Em.
      destruct push as [f|]; cbn in Epush; [|discriminate].
      unfold brs. cbn [flat_map]. rewrite Epush.
      destruct Hq as [->|[->| ->]]; destruct p'; try discriminate; reflexivity.
    + cbn [forallb] in Hpl. apply andb_prop in Hpl. destruct Hpl as [Hp Hps].
      assert (Eb : bal_step (brs s) t = Some (brs s)) by (apply bal_plain; eapply pat_plain_tok; eauto).
      unfold cfg. destruct ps as [|p2 ps2]; intro H; inversion H; subst.
      * split; [exact Wn|]. rewrite Eb. destruct push as [f|]; [|reflexivity]. cbn in Epush. unfold brs. cbn [flat_map]. rewrite Epush. reflexivity.
      * split; [|exact Eb]. cbn [mode_wf]. split; [|exact Wn]. right. split; [exact Hps|exact Epush].
  }
  all: intro H; crackb H.
Qed.

Lemma js_run_bal md ts : forall m s m' s' d, mode_wf m -> js_run md ts m s = Some (m', s', d) -> bal_run ts (brs s) = Some (brs s').
Proof.
  induction ts as [|t ts IH]; intros m s m' s' d W H; cbn [js_run bal_run] in *.
  - inversion H; subst. reflexivity.
  - destruct (js_step md m s t) as [[[m1 s1] d1]|] eqn:E; [|discriminate].
    destruct (js_step_bal _ _ _ _ _ _ _ W E) as [W1 B]. rewrite B.
    destruct (js_run md ts m1 s1) as [[[m2 s2] d2]|] eqn:E2; [|discriminate]. inversion H; subst.
    eapply IH; eauto.
Qed.

(* every token list the recogniser accepts is bracket balanced *)
Theorem js_parse_balanced md ts p : js_parse md ts = Some p -> bracket_balanced ts = true.
Proof.
  unfold js_parse, bracket_balanced. intro H.
  destruct (js_run md ts (MStmt false) []) as [[[m s] d]|] eqn:E; [|discriminate].
  destruct m; try discriminate. destruct s; [|discriminate].
  pose proof (js_run_bal md ts (MStmt false) [] _ _ _ I E) as B. cbn [brs flat_map] in B. rewrite B. reflexivity.
Qed.
