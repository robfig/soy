(* The command-level parser model (Model/Parser.v) touches the item list only through Token.recv (via c_next /
   c_peek and the expression parser): every procedure is locked in the sense of Proofs/RecvOnlyTok.v.
   Main statements: [ro_item_list], and its reading for the entry point [ro_parse_depends_on_received]. *)
From Soy Require Import Model.Bytes Model.Outcome Model.Ast Model.Token Model.RawText Model.ExprParser Model.Parser Generated.Tables
  Proofs.RecvOnlyTok Proofs.RecvOnlyExpr.
Open Scope N_scope.

(* [ro_ego] of Proofs/RecvOnlyExpr.v at the command level.  A condition reads fields other than the items, so it is
   the same on both sides; a call is the instance at [g q] of [ro_lockC P]. *)
Ltac ro_cret := apply ro_lockc_eq; [reflexivity|first [exact I|apply ro_mono_refl]].
Ltac ro_cgo :=
  repeat lazymatch goal with
  | |- ro_lockc _ _ (cbind _ _) (cbind _ _) => apply ro_lockc_bind; [|intros ? ? ?]
  | |- ro_lockc _ _ (if ?c then _ else _) (if ?c' then _ else _) => change c' with c; destruct c
  | |- ro_lockc _ _ (match ?c with _ => _ end) (match ?c' with _ => _ end) => change c' with c; destruct c
  | |- ro_lockc _ _ (CCrash _) _ => ro_cret
  | |- ro_lockc ?e _ (?P ?gs) _ =>
      change (ro_lockc e gs (P gs) (P (ro_cext e gs))); apply (fun H : ro_lockC P => H gs e); solve [auto with ro nocore]
  | |- _ => progress cbv zeta
  end.
(* a loop procedure: induction on its fuel, out of fuel being the same on both sides *)
Ltac ro_loop f IH := induction f as [|f IH]; intros; intros ? ?; [ro_cret|].

(* errorAt's slice panic: an error whose position lies beyond the text becomes a crash *)
Definition ro_clip {A} (inlen : N) (r : cres A) : cres A :=
  match r with
  | CErr t c s => if t_pos t <=? inlen then CErr t c s else CCrash e_pslice
  | _ => r
  end.
Lemma ro_cfin_clip {A} inlen (r : cres A) : ro_cfin (ro_clip inlen r) = ro_cfin r \/ ro_cfin (ro_clip inlen r) = None.
Proof. destruct r as [a q|t c q|m|]; cbn [ro_clip]; auto. destruct (t_pos t <=? inlen); auto. Qed.
Lemma ro_clip_crext {A} inlen e (r : cres A) : ro_clip inlen (ro_crext e r) = ro_crext e (ro_clip inlen r).
Proof. destruct r as [a q|t c q|m|]; cbn [ro_clip ro_crext]; auto. destruct (t_pos t <=? inlen); reflexivity. Qed.
Lemma ro_lockc_clip {A} inlen e s (r r' : cres A) : ro_lockc e s r r' -> ro_lockc e s (ro_clip inlen r) (ro_clip inlen r').
Proof.
  intros (M & M' & W & P). split; [|split; [|split]].
  - destruct (ro_cfin_clip inlen r) as [-> | ->]; [exact M|exact I].
  - destruct (ro_cfin_clip inlen r') as [-> | ->]; [exact M'|exact I].
  - intros Wn. rewrite W; [apply ro_clip_crext|]. destruct Wn as [Wn|Wn]; [left|right].
    + destruct (ro_cfin_clip inlen r) as [E|E]; rewrite E in Wn; [exact Wn|destruct Wn].
    + destruct (ro_cfin_clip inlen r') as [E|E]; rewrite E in Wn; [exact Wn|destruct Wn].
  - intros j Ej Wn. destruct (P j Ej) as (j1 & E1); [|exists j1; rewrite E1; apply ro_clip_crext].
    destruct Wn as [Wn|Wn]; [left|right].
    + destruct (ro_cfin_clip inlen r) as [E|E]; rewrite E in Wn; [exact Wn|destruct Wn].
    + destruct (ro_cfin_clip inlen r') as [E|E]; rewrite E in Wn; [exact Wn|destruct Wn].
Qed.

Section Cmd.
Variable inlen : N.
Variable lexq : bstr -> list tok.
Variable unq : bstr -> option bstr.
Variable pexpr : nat -> N -> pst -> presult node.
Variable efuel : list tok -> nat.
Hypothesis Hpexpr : forall f prec, ro_lockP (pexpr f prec).

(* parseExpr on the command state: the expression parser on the token state *)
Lemma ro_lift_expr f prec : ro_lockC (lift_expr inlen pexpr f prec).
Proof.
  intros s e.
  assert (E : forall s0, lift_expr inlen pexpr f prec s0 = ro_clip inlen (ro_lift s0 (pexpr f prec (c_p s0)))).
  { intros s0. unfold lift_expr. destruct (pexpr f prec (c_p s0)); reflexivity. }
  rewrite !E. apply ro_lockc_clip. apply ro_lockc_lift. apply Hpexpr.
Qed.

(* parseQuotedExpr runs the expression parser on the items of a NEW scanner: the outer items are not touched *)
Lemma ro_parse_quoted_expr str : ro_lockC (parse_quoted_expr inlen lexq pexpr efuel str).
Proof.
  intros s e. unfold parse_quoted_expr.
  change (p_peek (c_p (ro_cext e s))) with (p_peek (c_p s)). change (err_tok (c_p (ro_cext e s))) with (err_tok (c_p s)).
  destruct (3 <=? p_peek (c_p s))%nat; [ro_cret|]. cbv zeta.
  match goal with |- ro_lockc _ _ (match ?x with _ => _ end) _ => destruct x as [n p'|t c p'|m|] end; try ro_cret.
  match goal with |- ro_lockc _ _ (if ?x then _ else _) _ => destruct x end; ro_cret.
Qed.
#[local] Hint Resolve ro_parse_quoted_expr : ro.

Lemma ro_attrs_loop : forall f allowed acc, ro_lockC (attrs_loop inlen unq f allowed acc).
Proof. ro_loop f IH. cbn [attrs_loop]. ro_cgo. Qed.
#[local] Hint Resolve ro_attrs_loop : ro.
Lemma ro_parse_autoescape attrs : ro_lockC (parse_autoescape inlen attrs).
Proof. intros s e. unfold parse_autoescape. ro_cgo. Qed.
#[local] Hint Resolve ro_parse_autoescape : ro.
Lemma ro_bool_attr attrs key dflt : ro_lockC (bool_attr inlen attrs key dflt).
Proof. intros s e. unfold bool_attr. ro_cgo. Qed.
Lemma ro_next_non_comment : forall f, ro_lockC (next_non_comment f).
Proof. ro_loop f IH. cbn [next_non_comment]. ro_cgo. Qed.
Lemma ro_skip_comments : forall f t, ro_lockC (skip_comments f t).
Proof. ro_loop f IH. cbn [skip_comments]. ro_cgo. Qed.
Lemma ro_text_run : forall f t, ro_lockC (text_run f t).
Proof. ro_loop f IH. cbn [text_run]. ro_cgo. Qed.
Lemma ro_soydoc_loop : forall f pos ps, ro_lockC (soydoc_loop inlen f pos ps).
Proof. ro_loop f IH. cbn [soydoc_loop]. ro_cgo. Qed.
Lemma ro_alias_loop : forall f n l, ro_lockC (alias_loop inlen f n l).
Proof. ro_loop f IH. cbn [alias_loop]. ro_cgo. Qed.
#[local] Hint Resolve ro_alias_loop : ro.
Lemma ro_parse_alias f : ro_lockC (parse_alias inlen f).
Proof. intros s e. unfold parse_alias. ro_cgo. Qed.
Lemma ro_dotted_name : forall f n, ro_lockC (dotted_name f n).
Proof. ro_loop f IH. cbn [dotted_name]. ro_cgo. Qed.
#[local] Hint Resolve ro_dotted_name : ro.
Lemma ro_parse_namespace f t : ro_lockC (parse_namespace inlen unq f t).
Proof. intros s e. unfold parse_namespace. ro_cgo. Qed.
Lemma ro_call_name_loop : forall f n, ro_lockC (call_name_loop f n).
Proof. ro_loop f IH. cbn [call_name_loop]. ro_cgo. Qed.
#[local] Hint Resolve ro_call_name_loop : ro.
Lemma ro_call_name f : ro_lockC (call_name f).
Proof. intros s e. unfold call_name. ro_cgo. Qed.
Lemma ro_plural_cases : forall cs cases dflt, ro_lockC (plural_cases inlen cs cases dflt).
Proof. induction cs as [|c cs IH]; intros cases dflt s e; cbn [plural_cases]; ro_cgo. Qed.
Lemma ro_parse_css t : ro_lockC (parse_css inlen lexq pexpr efuel t).
Proof. intros s e. unfold parse_css. ro_cgo. Qed.
#[local] Hint Resolve ro_bool_attr ro_next_non_comment ro_skip_comments ro_text_run ro_soydoc_loop ro_parse_alias
  ro_parse_namespace ro_call_name ro_plural_cases ro_parse_css : ro.

Section Level.
Variable pe : N -> cst -> cres node.
Variable w : list N -> cst -> cres node.
Variable lf : nat.
Hypothesis Hpe : forall prec, ro_lockC (pe prec).
Hypothesis Hw : forall u, ro_lockC (w u).

Lemma ro_directive_args : forall f args, ro_lockC (directive_args pe f args).
Proof. ro_loop f IH. cbn [directive_args]. ro_cgo. Qed.
#[local] Hint Resolve ro_directive_args : ro.
Lemma ro_cmd_print_loop : forall f pos x dirs, ro_lockC (cmd_print_loop inlen pe lf f pos x dirs).
Proof. ro_loop f IH. cbn [cmd_print_loop]. ro_cgo. Qed.
#[local] Hint Resolve ro_cmd_print_loop : ro.
Lemma ro_cmd_print t : ro_lockC (cmd_print inlen pe lf t).
Proof. intros s e. unfold cmd_print. ro_cgo. Qed.
Lemma ro_parse_let t : ro_lockC (parse_let inlen unq pe w lf t).
Proof. intros s e. unfold parse_let. ro_cgo. Qed.
Lemma ro_orphan_text : forall f t, ro_lockC (orphan_text inlen lf f t).
Proof. ro_loop f IH. cbn [orphan_text]. ro_cgo. Qed.
Lemma ro_param_attr_form rec params initial key0 : (forall ps, ro_lockC (rec ps)) ->
  ro_lockC (param_attr_form inlen lexq unq pexpr efuel w lf rec params initial key0).
Proof. intros Hrec s e. unfold param_attr_form. ro_cgo. Qed.
#[local] Hint Resolve ro_orphan_text ro_param_attr_form : ro.
Lemma ro_call_params_loop : forall f params, ro_lockC (call_params_loop inlen lexq unq pexpr efuel pe w lf f params).
Proof. ro_loop f IH. cbn [call_params_loop]. ro_cgo. Qed.
#[local] Hint Resolve ro_call_params_loop : ro.
Lemma ro_parse_call t : ro_lockC (parse_call inlen lexq unq pexpr efuel pe w lf t).
Proof. intros s e. unfold parse_call. ro_cgo. Qed.
Lemma ro_case_loop : forall f t vs, ro_lockC (case_loop inlen pe w f t vs).
Proof. ro_loop f IH. cbn [case_loop]. ro_cgo. Qed.
#[local] Hint Resolve ro_case_loop : ro.
Lemma ro_switch_loop : forall f pos endt v cs, ro_lockC (switch_loop inlen pe w lf f pos endt v cs).
Proof. ro_loop f IH. cbn [switch_loop]. ro_cgo. Qed.
#[local] Hint Resolve ro_switch_loop : ro.
Lemma ro_parse_switch t endt : ro_lockC (parse_switch inlen pe w lf t endt).
Proof. intros s e. unfold parse_switch. ro_cgo. Qed.
#[local] Hint Resolve ro_parse_switch : ro.
Lemma ro_parse_plural t : ro_lockC (parse_plural inlen pe w lf t).
Proof. intros s e. unfold parse_plural. ro_cgo. Qed.
Lemma ro_parse_for t : ro_lockC (parse_for inlen pe w t).
Proof. intros s e. unfold parse_for. ro_cgo. Qed.
Lemma ro_if_loop : forall f pos conds ie, ro_lockC (if_loop inlen pe w f pos conds ie).
Proof. ro_loop f IH. cbn [if_loop]. ro_cgo. Qed.
Lemma ro_parse_msg t : ro_lockC (parse_msg inlen unq w lf t).
Proof. intros s e. unfold parse_msg. ro_cgo. Qed.
Lemma ro_parse_template t : ro_lockC (parse_template inlen unq w lf t).
Proof. intros s e. unfold parse_template. ro_cgo. Qed.
Lemma ro_parse_header_param t : ro_lockC (parse_header_param inlen pe t).
Proof. intros s e. unfold parse_header_param. ro_cgo. Qed.
#[local] Hint Resolve ro_cmd_print ro_parse_let ro_parse_call ro_parse_plural ro_parse_for ro_if_loop ro_parse_msg ro_parse_template
  ro_parse_header_param : ro.

Lemma ro_begin_tag : ro_lockC (begin_tag inlen lexq unq pexpr efuel pe w lf).
Proof. intros s e. unfold begin_tag, notmsg. ro_cgo. Qed.
#[local] Hint Resolve ro_begin_tag : ro.
Lemma ro_text_or_tag t u : ro_lockC (text_or_tag inlen lexq unq pexpr efuel pe w lf t u).
Proof. intros s e. unfold text_or_tag. ro_cgo. Qed.
#[local] Hint Resolve ro_text_or_tag : ro.
Lemma ro_item_list_loop : forall f u pos acc, ro_lockC (item_list_loop inlen lexq unq pexpr efuel pe w lf f u pos acc).
Proof. ro_loop f IH. cbn [item_list_loop]. ro_cgo. Qed.
End Level.

Theorem ro_item_list_gen : forall F u, ro_lockC (item_list inlen lexq unq pexpr efuel F u).
Proof.
  induction F as [|f IH]; intros u s e; [cbn [item_list]; ro_cret|]. cbn [item_list].
  apply ro_item_list_loop; [intros prec; apply ro_lift_expr|exact IH].
Qed.
End Cmd.

(* parse.SoyFile's itemList over the expression parser of Model/ExprParser.v *)
Theorem ro_item_list inlen lexq unq : forall F u, ro_lockC (item_list inlen lexq unq parse_expr expr_fuel F u).
Proof. intros F u. apply ro_item_list_gen. exact ro_parse_expr. Qed.

(* the entry point (budget F explicit): a run that made no more receives than there are items in [ts] is the run on
   every extension [ts ++ e] of the list -- same tree or error, final state with [e] still unreceived -- and conversely
   a run on [ts ++ e] that made at most |ts| receives is the extension of the run on [ts] *)
Theorem ro_parse_depends_on_received inlen lexq unq F ts e :
  (forall r, item_list inlen lexq unq parse_expr expr_fuel F u_eof (cst_init ts) = r ->
     match ro_cfin r with Some q => (p_recv q <= length ts)%nat | None => False end ->
     item_list inlen lexq unq parse_expr expr_fuel F u_eof (cst_init (ts ++ e)) = ro_crext e r) /\
  (forall r', item_list inlen lexq unq parse_expr expr_fuel F u_eof (cst_init (ts ++ e)) = r' ->
     match ro_cfin r' with Some q => (p_recv q <= length ts)%nat | None => False end ->
     r' = ro_crext e (item_list inlen lexq unq parse_expr expr_fuel F u_eof (cst_init ts))).
Proof.
  destruct (ro_item_list inlen lexq unq F u_eof (cst_init ts) e) as (_ & _ & W & _).
  change (ro_cext e (cst_init ts)) with (cst_init (ts ++ e)) in W.
  split.
  - intros r <- H. apply W. left. exact H.
  - intros r' <- H. apply W. right. exact H.
Qed.

(* a receive from the closed channel is a receive of a zero item: a run that made at most |ts| + j receives is, up
   to the zero items left over, the run on [ts] followed by j zero items *)
Theorem ro_parse_zero_padding inlen lexq unq F ts j :
  (forall r, item_list inlen lexq unq parse_expr expr_fuel F u_eof (cst_init ts) = r ->
     match ro_cfin r with Some q => (p_recv q <= length ts + j)%nat | None => False end ->
     exists j', item_list inlen lexq unq parse_expr expr_fuel F u_eof (cst_init (ts ++ ro_zeros j)) = ro_crext (ro_zeros j') r) /\
  (forall r', item_list inlen lexq unq parse_expr expr_fuel F u_eof (cst_init (ts ++ ro_zeros j)) = r' ->
     match ro_cfin r' with Some q => (p_recv q <= length ts + j)%nat | None => False end ->
     exists j', r' = ro_crext (ro_zeros j') (item_list inlen lexq unq parse_expr expr_fuel F u_eof (cst_init ts))).
Proof.
  destruct (ro_item_list inlen lexq unq F u_eof (cst_init ts) (ro_zeros j)) as (_ & _ & _ & P). specialize (P j eq_refl).
  change (ro_cext (ro_zeros j) (cst_init ts)) with (cst_init (ts ++ ro_zeros j)) in P.
  assert (Hw : forall o, match o with Some q => (p_recv q <= length ts + j)%nat | None => False end ->
                         ro_within (ro_pext (ro_zeros j) (c_p (cst_init ts))) o).
  { intros [q|] H; [|exact H]. unfold ro_within, ro_avail, ro_zeros. cbn [cst_init c_p pst_init ro_pext p_recv p_rest].
    rewrite app_length, repeat_length. exact H. }
  split.
  - intros r <- H. apply P. left. apply Hw. exact H.
  - intros r' <- H. apply P. right. apply Hw. exact H.
Qed.

Print Assumptions ro_item_list.
Print Assumptions ro_parse_zero_padding.
Print Assumptions ro_parse_depends_on_received.
