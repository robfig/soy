(* Source tie, family 76-gotrans-soyjs (soyjs/formatters.go): ES6Identifier and the strings
   the ES5 / ES6 formatters return, as Model/JsGen.v uses them (through tablegen's formatter
   tables), against the methods as gotrans translates them from the source of the tree under check. *)
From Coq Require Import ZArith NArith Bool Lia ZifyBool List.
From Soy Require Import Model.Bytes Generated.Tables Model.JsGen Proofs.SourceTieBase.
Import ListNotations.
Open Scope N_scope.

(* ES6Identifier as Model/JsGen.v has it *)
Theorem es6_ident_matches_source (s : bstr) : es6_ident s = src_soyjs_ES6Identifier s.
Proof.
  unfold src_soyjs_ES6Identifier, go_replace_all. rewrite go_replace_byte by lia.
  symmetry. induction s as [|c r IH]; cbn [go_replace_char es6_ident]; [reflexivity|]. rewrite IH. destruct (c =? 46); reflexivity.
Qed.

(* the formatter strings of Model/JsGen.v: fmt_bytes over tablegen's piece lists.
   [autounfold with src_helpers]: the hint database of Generated/Tables.v into which gotrans puts (Hint Unfold) the
   functions it translates for a helper that the Go source splits off and no lemma names; empty when there is none *)
Ltac fmt_tie :=
  intros; cbv [fmt_template_name fmt_template_text fmt_call_name fmt_call_text fmt_directive fmt_function
               js_es5_template_name js_es5_template_text js_es5_call_name js_es5_call_text js_es5_directive js_es5_function
               js_es6_template_name js_es6_template_text js_es6_call_name js_es6_call_text js_es6_directive js_es6_function
               src_soyjs_ES5Formatter_Template src_soyjs_ES5Formatter_Call src_soyjs_ES5Formatter_Directive
               src_soyjs_ES5Formatter_Function src_soyjs_ES6Formatter_Template src_soyjs_ES6Formatter_Call
               src_soyjs_ES6Formatter_Directive src_soyjs_ES6Formatter_Function fst snd];
  autounfold with src_helpers; cbn [fmt_bytes]; rewrite ?es6_ident_matches_source; rewrite <- ?app_assoc, ?app_nil_r; reflexivity.

Theorem es5_template_matches_source (name : bstr) :
  (fmt_bytes (fmt_template_name ES5) name, fmt_bytes (fmt_template_text ES5) name) = src_soyjs_ES5Formatter_Template name.
Proof. fmt_tie. Qed.
Theorem es5_call_matches_source (name : bstr) :
  (fmt_bytes (fmt_call_name ES5) name, fmt_bytes (fmt_call_text ES5) name) = src_soyjs_ES5Formatter_Call name.
Proof. fmt_tie. Qed.
Theorem es5_directive_matches_source (name : bstr) : fmt_bytes (fmt_directive ES5) name = src_soyjs_ES5Formatter_Directive.
Proof. fmt_tie. Qed.
Theorem es5_function_matches_source (name : bstr) : fmt_bytes (fmt_function ES5) name = src_soyjs_ES5Formatter_Function.
Proof. fmt_tie. Qed.
Theorem es6_template_matches_source (name : bstr) :
  (fmt_bytes (fmt_template_name ES6) name, fmt_bytes (fmt_template_text ES6) name) = src_soyjs_ES6Formatter_Template name.
Proof. fmt_tie. Qed.
Theorem es6_call_matches_source (name : bstr) :
  (fmt_bytes (fmt_call_name ES6) name, fmt_bytes (fmt_call_text ES6) name) = src_soyjs_ES6Formatter_Call name.
Proof. fmt_tie. Qed.
Theorem es6_directive_matches_source (name : bstr) : fmt_bytes (fmt_directive ES6) name = src_soyjs_ES6Formatter_Directive name.
Proof. fmt_tie. Qed.
Theorem es6_function_matches_source (name : bstr) : fmt_bytes (fmt_function ES6) name = src_soyjs_ES6Formatter_Function name.
Proof. fmt_tie. Qed.
