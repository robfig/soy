(* The message-body rewriting of Model/Parser.v ([msg_raw_text], [plz], [plz_children]) and the two
   observers [children_of] / [is_plural] respect equality up to positions ([cps_strip]). *)
From Soy Require Import Model.Bytes Model.Num Model.Values Model.Ast Model.Token Model.RawText Model.ExprParser Model.Parser
  Generated.Tables Spec.ExprSyntax Proofs.ExprParserStrip.
From Soy Require Import Proofs.CmdParserStripDefs.
Require Import Lia List PeanoNat.
Import ListNotations.
Open Scope N_scope.

Lemma cps_msg_raw_text_loop f : forall p p' txt,
  map cps_strip (msg_raw_text_loop f p txt) = map cps_strip (msg_raw_text_loop f p' txt).
Proof.
  induction f as [|f IH]; intros p p' txt; [reflexivity|].
  destruct txt as [|b txt]; [reflexivity|].
  cbn [msg_raw_text_loop].
  destruct (find_tag (b :: txt) 0) as [[st en]|]; [|reflexivity].
  cbv zeta. rewrite !map_app. cbn [map cps_strip]. f_equal.
  - destruct (0 <? st)%nat; reflexivity.
  - f_equal. apply IH.
Qed.

Lemma cps_msg_raw_text p p' t : map cps_strip (msg_raw_text p t) = map cps_strip (msg_raw_text p' t).
Proof. unfold msg_raw_text. apply cps_msg_raw_text_loop. Qed.

Definition cps_shape (n : node) : nat :=
  match n with
  | NRawText _ _ => 1
  | NMsgPlural _ _ _ _ _ => 2
  | NMsgPluralCase _ _ _ => 3
  | NList _ _ => 4
  | _ => 0
  end%nat.

Lemma cps_shape_strip n : cps_shape (cps_strip n) = cps_shape n.
Proof. destruct n; reflexivity. Qed.

Lemma cps_shape_eq n n' : cps_strip n = cps_strip n' -> cps_shape n = cps_shape n'.
Proof. intros H. apply (f_equal cps_shape) in H. rewrite !cps_shape_strip in H. exact H. Qed.

Lemma cps_shape_raw n : cps_shape n = 1%nat -> exists p t, n = NRawText p t.
Proof. destruct n; cbn [cps_shape]; intros H; try discriminate H. eauto. Qed.
Lemma cps_shape_plural n : cps_shape n = 2%nat -> exists p vn v cases dflt, n = NMsgPlural p vn v cases dflt.
Proof. destruct n; cbn [cps_shape]; intros H; try discriminate H. eauto 6. Qed.
Lemma cps_shape_case n : cps_shape n = 3%nat -> exists p v body, n = NMsgPluralCase p v body.
Proof. destruct n; cbn [cps_shape]; intros H; try discriminate H. eauto. Qed.
Lemma cps_shape_list n : cps_shape n = 4%nat -> exists p l, n = NList p l.
Proof. destruct n; cbn [cps_shape]; intros H; try discriminate H. eauto. Qed.

Lemma cps_plz_other n : cps_shape n <> 1%nat -> cps_shape n <> 2%nat -> plz n = [NMsgPlaceholder (pos_of n) [] n].
Proof. destruct n; cbn [cps_shape]; intros H1 H2; try reflexivity; [elim H1 | elim H2]; reflexivity. Qed.

Lemma cps_children_other n : cps_shape n <> 4%nat -> children_of n = [].
Proof. destruct n; cbn [cps_shape]; intros H; try reflexivity. elim H; reflexivity. Qed.

(* placeholderize on a {plural}, with the local loops of Model/Parser.v at top level *)
Definition plz_case (c : node) : node :=
  match c with NMsgPluralCase cp cv b => NMsgPluralCase cp cv (plz_children b) | o => o end.

Lemma plz_plural p vn v cases dflt :
  plz (NMsgPlural p vn v cases dflt) = [NMsgPlural p [] v (map plz_case cases) (plz_children dflt)].
Proof. reflexivity. Qed.

Lemma plz_case_other c : cps_shape c <> 3%nat -> plz_case c = c.
Proof. destruct c; cbn [cps_shape]; intros H; try reflexivity. elim H; reflexivity. Qed.

(* depth through plural nesting *)
Fixpoint cps_pd (n : node) : nat :=
  match n with
  | NMsgPlural _ _ _ cases dflt =>
      S (Nat.max (list_max (map (fun c => match c with
                                          | NMsgPluralCase _ _ body => list_max (map cps_pd body)
                                          | _ => O
                                          end) cases))
                 (list_max (map cps_pd dflt)))
  | _ => O
  end.
Definition cps_cd (c : node) : nat :=
  match c with NMsgPluralCase _ _ body => list_max (map cps_pd body) | _ => O end.

Lemma cps_pd_plural p vn v cases dflt :
  cps_pd (NMsgPlural p vn v cases dflt) = S (Nat.max (list_max (map cps_cd cases)) (list_max (map cps_pd dflt))).
Proof. reflexivity. Qed.

Lemma cps_list_max_cons x l : list_max (x :: l) = Nat.max x (list_max l).
Proof. reflexivity. Qed.

Section Depth.
Variable k : nat.
Hypothesis IH : forall n n', (cps_pd n < k)%nat -> cps_strip n = cps_strip n' ->
  map cps_strip (plz n) = map cps_strip (plz n').

Lemma cps_plz_children_depth : forall l l', (list_max (map cps_pd l) < k)%nat ->
  cps_leq l l' -> cps_leq (plz_children l) (plz_children l').
Proof.
  unfold cps_leq. induction l as [|x r IHr]; intros l' Hd H; destruct l' as [|x' r']; cbn [map] in H; try discriminate H.
  - reflexivity.
  - injection H as Hx Hr. cbn [map] in Hd. rewrite cps_list_max_cons in Hd.
    cbn [plz_children]. rewrite !map_app. f_equal.
    + apply IH; [lia | exact Hx].
    + apply IHr; [lia | exact Hr].
Qed.

Lemma cps_pcases_depth : forall l l', (list_max (map cps_cd l) < k)%nat ->
  cps_leq l l' -> cps_leq (map plz_case l) (map plz_case l').
Proof.
  unfold cps_leq. induction l as [|c r IHr]; intros l' Hd H; destruct l' as [|c' r']; cbn [map] in H; try discriminate H.
  - reflexivity.
  - injection H as Hc Hr. cbn [map] in Hd. rewrite cps_list_max_cons in Hd.
    cbn [map]. f_equal; [|apply IHr; [lia | exact Hr]].
    pose proof (cps_shape_eq _ _ Hc) as Hs.
    destruct (Nat.eq_dec (cps_shape c) 3) as [E|E].
    + destruct (cps_shape_case c E) as (cp & cv & body & ->). rewrite E in Hs.
      destruct (cps_shape_case c' (eq_sym Hs)) as (cp' & cv' & body' & ->).
      cbn [cps_strip] in Hc. injection Hc as Hv Hb. subst cv'.
      cbn [plz_case cps_strip]. f_equal.
      apply cps_plz_children_depth; [|exact Hb]. cbn [cps_cd] in Hd. lia.
    + rewrite (plz_case_other c E), (plz_case_other c') by congruence. exact Hc.
Qed.
End Depth.

Lemma cps_plz_depth k : forall n n', (cps_pd n < k)%nat -> cps_strip n = cps_strip n' ->
  map cps_strip (plz n) = map cps_strip (plz n').
Proof.
  induction k as [|k IH]; intros n n' Hd H; [lia|].
  pose proof (cps_shape_eq _ _ H) as Hs.
  destruct (Nat.eq_dec (cps_shape n) 1) as [E1|E1].
  - destruct (cps_shape_raw n E1) as (p & t & ->). rewrite E1 in Hs.
    destruct (cps_shape_raw n' (eq_sym Hs)) as (p' & t' & ->).
    cbn [cps_strip] in H. injection H as <-. cbn [plz]. apply cps_msg_raw_text.
  - destruct (Nat.eq_dec (cps_shape n) 2) as [E2|E2].
    + destruct (cps_shape_plural n E2) as (p & vn & v & cases & dflt & ->). rewrite E2 in Hs.
      destruct (cps_shape_plural n' (eq_sym Hs)) as (p' & vn' & v' & cases' & dflt' & ->).
      apply (f_equal cps_parts) in H. cbn [cps_strip cps_parts] in H. injection H as Hv Hc Hdf.
      rewrite cps_pd_plural in Hd. rewrite !plz_plural. cbn [map cps_strip]. rewrite Hv.
      rewrite (cps_pcases_depth k IH cases cases') by (try exact Hc; lia).
      rewrite (cps_plz_children_depth k IH dflt dflt') by (try exact Hdf; lia).
      reflexivity.
    + rewrite (cps_plz_other n), (cps_plz_other n') by congruence. cbn [map cps_strip]. rewrite H. reflexivity.
Qed.

Lemma cps_plz n n' : cps_strip n = cps_strip n' -> map cps_strip (plz n) = map cps_strip (plz n').
Proof. apply (cps_plz_depth (S (cps_pd n))). lia. Qed.

Lemma cps_plz_children l l' : cps_leq l l' -> cps_leq (plz_children l) (plz_children l').
Proof.
  unfold cps_leq. revert l'. induction l as [|x r IHr]; intros l' H; destruct l' as [|x' r']; cbn [map] in H; try discriminate H.
  - reflexivity.
  - injection H as Hx Hr. cbn [plz_children]. rewrite !map_app. f_equal; [apply cps_plz; exact Hx | apply IHr; exact Hr].
Qed.

Lemma cps_is_plural_strip n : is_plural n = is_plural (cps_strip n).
Proof. destruct n; reflexivity. Qed.

Lemma cps_exists_plural l l' : cps_leq l l' -> existsb is_plural l = existsb is_plural l'.
Proof.
  unfold cps_leq. revert l'. induction l as [|x r IHr]; intros l' H; destruct l' as [|x' r']; cbn [map] in H; try discriminate H.
  - reflexivity.
  - injection H as Hx Hr. cbn [existsb]. rewrite (IHr r' Hr).
    rewrite (cps_is_plural_strip x), (cps_is_plural_strip x'), Hx. reflexivity.
Qed.

Lemma cps_children_of n n' : cps_neq n n' -> cps_leq (children_of n) (children_of n').
Proof.
  unfold cps_neq, cps_leq. intros H. pose proof (cps_shape_eq _ _ H) as Hs.
  destruct (Nat.eq_dec (cps_shape n) 4) as [E|E].
  - destruct (cps_shape_list n E) as (p & l & ->). rewrite E in Hs.
    destruct (cps_shape_list n' (eq_sym Hs)) as (p' & l' & ->).
    cbn [cps_strip] in H. injection H as Hl. exact Hl.
  - rewrite (cps_children_other n E), (cps_children_other n') by congruence. reflexivity.
Qed.
