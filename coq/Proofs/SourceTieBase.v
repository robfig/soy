(* Source tie, common part: facts about the go_* vocabulary of the functions that
   tablegen's gotrans translates from the Go source (the src_ definitions of Generated/Tables.v), and the
   tactics the SourceTie*.v files use.  Imports Model/Bytes.v, the
   generated tables and Proofs/BytesBase.v only, so that importing a tie file adds only tie obligations to a
   property's closure. *)
From Coq Require Import ZArith NArith Bool Lia ZifyBool List.
From Soy Require Import Model.Bytes Generated.Tables Proofs.BytesBase.
Import ListNotations.
Open Scope N_scope.

(* ---- booleans ---- *)
Lemma if_bool (c x y : bool) : (if c then x else y) = (c && x) || (negb c && y).
Proof. destruct c, x, y; reflexivity. Qed.

(* boolean goals over integer comparisons, whatever the shape (|| chains, if chains, lets) *)
Ltac bool_lia := intros; cbv zeta; rewrite ?if_bool; lia.

(* decide every `if` whose condition lia can decide from the hypotheses (whatever the nesting of ifs / switches
   the source uses) *)
Ltac st_decide_ifs :=
  repeat match goal with
         | |- context [if ?c then _ else _] =>
             lazymatch c with
             | true => fail
             | false => fail
             | _ => first [ replace c with true by lia | replace c with false by lia ]
             end; cbv iota
         end.

Lemma find_existsb {A} (f : A -> bool) (l : list A) :
  match find f l with Some _ => true | None => false end = existsb f l.
Proof. induction l as [|a l IH]; cbn [find existsb]; [reflexivity|]. destruct (f a); [reflexivity|exact IH]. Qed.

Lemma existsb_map {A B} (f : B -> bool) (g : A -> B) (l : list A) :
  existsb f (map g l) = existsb (fun a => f (g a)) l.
Proof. induction l as [|a l IH]; cbn [map existsb]; [reflexivity|]. now rewrite IH. Qed.

Lemma st_existsb_ext {A} (f g : A -> bool) (l : list A) :
  (forall a, f a = g a) -> existsb f l = existsb g l.
Proof. intros H; induction l as [|a l IH]; cbn [existsb]; [reflexivity|]. now rewrite H, IH. Qed.

(* ---- byte strings ---- *)
Lemma bstr_eqb_nil_r (x : bstr) : bstr_eqb x [] = match x with [] => true | _ => false end.
Proof. destruct x; reflexivity. Qed.

(* ---- finite ranges of N ---- *)
Fixpoint nrange_from (lo : N) (n : nat) : list N :=
  match n with O => [] | S k => lo :: nrange_from (lo + 1) k end.
Definition nrange (bound : N) : list N := nrange_from 0 (N.to_nat bound).

Lemma nrange_from_in lo n t : lo <= t -> t < lo + N.of_nat n -> In t (nrange_from lo n).
Proof.
  revert lo; induction n as [|n IH]; intros lo H1 H2; [lia|].
  cbn [nrange_from]. destruct (N.eq_dec lo t) as [->|Hne]; [now left|]. right. apply IH; lia.
Qed.

Lemma forall_below (P : N -> bool) (bound : N) :
  forallb P (nrange bound) = true -> forall t, t < bound -> P t = true.
Proof.
  intros H t Ht. rewrite forallb_forall in H. apply H. unfold nrange. apply nrange_from_in; lia.
Qed.

(* ---- association lists ---- *)
Definition opt_eqb {A} (beq : A -> A -> bool) (x y : option A) : bool :=
  match x, y with
  | Some a, Some c => beq a c
  | None, None => true
  | _, _ => false
  end.

Lemma opt_eqb_true {A} (beq : A -> A -> bool) :
  (forall a c, beq a c = true -> a = c) -> forall x y, opt_eqb beq x y = true -> x = y.
Proof. intros H [a|] [c|] E; cbn in E; try discriminate; [f_equal; now apply H|reflexivity]. Qed.

Lemma assoc_s_none {A} (k : bstr) (l : list (bstr * A)) :
  existsb (bstr_eqb k) (map fst l) = false -> assoc_s k l = None.
Proof.
  induction l as [|[k' v] l IH]; cbn [map fst existsb assoc_s]; [reflexivity|].
  intros H. apply orb_false_iff in H. destruct H as [H1 H2]. rewrite H1. now apply IH.
Qed.

(* two string-keyed tables agree on every key as soon as they agree on the keys they list *)
Lemma assoc_s_ext {A B} (f : A -> B) (beq : B -> B -> bool) (l1 : list (bstr * A)) (l2 : list (bstr * B)) :
  (forall a c, beq a c = true -> a = c) ->
  forallb (fun k => opt_eqb beq (option_map f (assoc_s k l1)) (assoc_s k l2)) (map fst l1 ++ map fst l2) = true ->
  forall k, option_map f (assoc_s k l1) = assoc_s k l2.
Proof.
  intros Hb H k. rewrite forallb_forall in H.
  destruct (existsb (bstr_eqb k) (map fst l1 ++ map fst l2)) eqn:E.
  - apply existsb_exists in E. destruct E as [k' [Hin Heq]]. apply bstr_eqb_true in Heq. subst k'.
    apply (opt_eqb_true beq Hb). now apply H.
  - rewrite existsb_app in E. apply orb_false_iff in E. destruct E as [E1 E2].
    rewrite (assoc_s_none _ _ E1), (assoc_s_none _ _ E2). reflexivity.
Qed.

Lemma assoc_none {A} (k : N) (l : list (N * A)) :
  existsb (N.eqb k) (map fst l) = false -> assoc k l = None.
Proof.
  induction l as [|[k' v] l IH]; cbn [map fst existsb assoc]; [reflexivity|].
  intros H. apply orb_false_iff in H. destruct H as [H1 H2]. rewrite H1. now apply IH.
Qed.

Lemma go_assoc_z_none {A} (k : Z) (l : list (Z * A)) :
  existsb (Z.eqb k) (map fst l) = false -> go_assoc_z k l = None.
Proof.
  induction l as [|[k' v] l IH]; cbn [map fst existsb go_assoc_z]; [reflexivity|].
  intros H. apply orb_false_iff in H. destruct H as [H1 H2]. rewrite H1. now apply IH.
Qed.

(* an N-keyed table of the models against a Z-keyed table translated from the source *)
Lemma assoc_z_ext {A B} (f : A -> B) (beq : B -> B -> bool) (l1 : list (N * A)) (l2 : list (Z * B)) :
  (forall a c, beq a c = true -> a = c) ->
  forallb (fun kv => Z.leb 0 (fst kv)) l2 = true ->
  forallb (fun k => opt_eqb beq (option_map f (assoc k l1)) (go_assoc_z (Z.of_N k) l2))
          (map fst l1 ++ map (fun kv => Z.to_N (fst kv)) l2) = true ->
  forall k, option_map f (assoc k l1) = go_assoc_z (Z.of_N k) l2.
Proof.
  intros Hb Hpos H k. rewrite forallb_forall in H.
  destruct (existsb (N.eqb k) (map fst l1 ++ map (fun kv => Z.to_N (fst kv)) l2)) eqn:E.
  - apply existsb_exists in E. destruct E as [k' [Hin Heq]]. apply N.eqb_eq in Heq. subst k'.
    apply (opt_eqb_true beq Hb). now apply H.
  - rewrite existsb_app in E. apply orb_false_iff in E. destruct E as [E1 E2].
    rewrite (assoc_none _ _ E1). symmetry. apply go_assoc_z_none.
    rewrite forallb_forall in Hpos.
    clear - E2 Hpos. induction l2 as [|[k' v] l2 IH]; cbn [map fst existsb] in *; [reflexivity|].
    apply orb_false_iff in E2. destruct E2 as [E2 E3].
    assert (Hk : (0 <=? k')%Z = true) by (apply (Hpos (k', v)); now left).
    apply orb_false_iff. split.
    + apply N.eqb_neq in E2. apply Z.eqb_neq. cbn [fst] in *. lia.
    + apply IH; [intros x Hx; apply Hpos; now right|exact E3].
Qed.

Lemma Z_eqb_true (a c : Z) : Z.eqb a c = true -> a = c.
Proof. apply Z.eqb_eq. Qed.

(* ---- indexing, lengths, slices ---- *)
Lemma go_len_nonneg {A} (l : list A) : (0 <= go_len l)%Z.
Proof. unfold go_len. lia. Qed.

Lemma go_index_in {A} (l : list A) (i : Z) :
  (0 <= i < go_len l)%Z -> go_index l i = nth_error l (Z.to_nat i).
Proof.
  intros H. unfold go_index.
  replace (orb (Z.ltb i 0) (Z.leb (go_len l) i)) with false by lia. reflexivity.
Qed.

Lemma go_index_out {A} (l : list A) (i : Z) :
  (i < 0 \/ go_len l <= i)%Z -> go_index l i = None.
Proof.
  intros H. unfold go_index.
  replace (orb (Z.ltb i 0) (Z.leb (go_len l) i)) with true by lia. reflexivity.
Qed.

Lemma go_index_0 {A} (a : A) (l : list A) : go_index (a :: l) 0%Z = Some a.
Proof. rewrite go_index_in; [reflexivity|]. unfold go_len. cbn [List.length]. lia. Qed.

Lemma go_index_nil {A} (i : Z) : go_index (@nil A) i = None.
Proof. apply go_index_out. unfold go_len. cbn [List.length]. lia. Qed.

(* ---- strings.Replace(s, old, new, -1) with a one-byte old ---- *)
Fixpoint go_replace_char (c : N) (new s : bstr) : bstr :=
  match s with
  | [] => []
  | x :: r => (if x =? c then new else [x]) ++ go_replace_char c new r
  end.

Lemma go_replace_byte (c : N) (new s : bstr) (n : nat) :
  (length s <= n)%nat -> go_replace_from n [c] new s = go_replace_char c new s.
Proof.
  revert s; induction n as [|n IH]; intros [|x r] H; cbn [length] in H; try lia; try reflexivity.
  cbn [go_replace_from go_replace_char is_prefix length drop].
  rewrite andb_true_r, (N.eqb_sym c x). rewrite !IH by (cbn [length]; lia).
  destruct (x =? c); reflexivity.
Qed.

(* ---- wraps ---- *)
Lemma go_wrap_s_id (bits x : Z) :
  (0 < bits)%Z -> (- 2 ^ (bits - 1) <= x < 2 ^ (bits - 1))%Z -> go_wrap_s bits x = x.
Proof.
  intros Hb Hx. unfold go_wrap_s.
  assert (E : (2 ^ bits = 2 * 2 ^ (bits - 1))%Z).
  { replace bits with (Z.succ (bits - 1))%Z at 1 by lia. rewrite Z.pow_succ_r by lia. reflexivity. }
  rewrite Z.mod_small by lia. lia.
Qed.

Lemma go_wrap_u_id (bits x : Z) : (0 <= x < 2 ^ bits)%Z -> go_wrap_u bits x = x.
Proof. intros Hx. unfold go_wrap_u. now apply Z.mod_small. Qed.

(* ---- bit operations on N and on the non-negative Z ---- *)
Lemma Z_of_N_lxor (a c : N) : Z.of_N (N.lxor a c) = Z.lxor (Z.of_N a) (Z.of_N c).
Proof. destruct a, c; reflexivity. Qed.
Lemma Z_of_N_lor (a c : N) : Z.of_N (N.lor a c) = Z.lor (Z.of_N a) (Z.of_N c).
Proof. destruct a, c; reflexivity. Qed.
Lemma Z_of_N_land (a c : N) : Z.of_N (N.land a c) = Z.land (Z.of_N a) (Z.of_N c).
Proof. destruct a, c; reflexivity. Qed.
Lemma Z_of_N_shiftl (a n : N) : Z.of_N (N.shiftl a n) = Z.shiftl (Z.of_N a) (Z.of_N n).
Proof.
  apply Z.bits_inj'. intros i Hi.
  rewrite <- (Z2N.id i) by exact Hi. rewrite Z.testbit_of_N.
  destruct (N.ltb (Z.to_N i) n) eqn:E.
  - apply N.ltb_lt in E. rewrite N.shiftl_spec_low by exact E. rewrite Z.shiftl_spec_low by lia. reflexivity.
  - apply N.ltb_ge in E. rewrite N.shiftl_spec_high' by exact E.
    rewrite Z.shiftl_spec by lia. rewrite <- N2Z.inj_sub by exact E. now rewrite Z.testbit_of_N.
Qed.
Lemma Z_of_N_mod (a c : N) : c <> 0 -> Z.of_N (a mod c) = (Z.of_N a mod Z.of_N c)%Z.
Proof. intros H. now apply N2Z.inj_mod. Qed.

(* ================================================================================================================
   Shape-independent statements and proofs (so that a behaviour-preserving rewrite of the Go function does not
   break its lemma).
   ================================================================================================================ *)

(* ---- results that may or may not have a panic path ----
   gotrans types a function `option T` as soon as its text contains an operation that can panic (an index, a loop
   that it translates with fuel or through go_flow) and `T` otherwise; a rewrite can move a function from one to the
   other.  Lemmas are stated through go_res: "the source never panics here and returns ...", whatever the type. *)
Class GoRes (T R : Type) := go_res : T -> option R.
#[global] Instance GoRes_option (R : Type) : GoRes (option R) R := fun x => x.
#[global] Instance GoRes_total (R : Type) : GoRes R R := fun x => Some x.

(* ---- functions of an item code / a byte: the finite part by evaluation, the rest by lia ----
   for a goal  F t = G (Z.of_N t)  (F the model's table or predicate, G the translated function: a switch, a chain of
   ifs, a lookup in a set or a table, a range test ...): below `bound` both sides are evaluated on every code, from
   `bound` on every comparison of t with a literal is decided by lia. *)
Lemma st_split_below (P : N -> Prop) (bound : N) :
  (forall t, t < bound -> P t) -> (forall t, bound <= t -> P t) -> forall t, P t.
Proof. intros H1 H2 t. destruct (N.ltb t bound) eqn:E; [apply H1|apply H2]; lia. Qed.

Lemma st_below_bool (F G : N -> bool) (bound : N) :
  forallb (fun t => Bool.eqb (F t) (G t)) (nrange bound) = true -> forall t, t < bound -> F t = G t.
Proof. intros H t Ht. apply Bool.eqb_prop. now apply (forall_below (fun t => Bool.eqb (F t) (G t)) bound). Qed.

Lemma st_below_Z (F G : N -> Z) (bound : N) :
  forallb (fun t => Z.eqb (F t) (G t)) (nrange bound) = true -> forall t, t < bound -> F t = G t.
Proof. intros H t Ht. apply Z.eqb_eq. now apply (forall_below (fun t => Z.eqb (F t) (G t)) bound). Qed.

(* unfold every package-level table that a lookup of the goal reads (whatever its name) and the lookups themselves *)
Ltac st_unfold_tables :=
  repeat match goal with
         | |- context [go_lookup_z _ ?t _] => is_const t; unfold t
         | |- context [go_assoc_z _ ?t] => is_const t; unfold t
         | |- context [go_lookup_s _ ?t _] => is_const t; unfold t
         | |- context [go_has_s _ ?t] => is_const t; unfold t
         | |- context [go_has_z _ ?t] => is_const t; unfold t
         end.

(* a lookup in a literal table whose keys are all decided by lia *)
Ltac st_decide_lookups :=
  cbv [go_lookup_z go_assoc_z go_has_z];
  repeat match goal with
         | |- context [if ?c then _ else _] =>
             lazymatch c with
             | true => fail
             | false => fail
             | _ => first [ replace c with true by lia | replace c with false by lia ]
             end; cbv iota
         end.
