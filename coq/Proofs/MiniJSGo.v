(* C04, the statement stages, the Go side: the walker of Model/Interp.v writes the text of the subset semantics (interp_all) *)
From Soy Require Import Model.Bytes Model.Num Model.Values Model.Outcome Model.Ast Model.JsGen Model.MiniJS
  Model.Escape Model.Directives Model.Print Generated.Tables Model.Interp
  Proofs.EscapeProofs Proofs.MiniJSProofs Proofs.MiniJSPrint Proofs.MiniJSStmt Model.MsgId Proofs.MsgIdProofs Proofs.MiniJSCtl.
Open Scope N_scope.

Lemma snode_raw t : snode (SRaw t) = NRawText 0 t. Proof. reflexivity. Qed.
Lemma snode_print e ds : snode (SPrint e ds) = NPrint 0 (cnode e) (map pdir_node ds). Proof. reflexivity. Qed.
Lemma snode_let name e : snode (SLet name e) = NLetValue 0 name (cnode e). Proof. reflexivity. Qed.
Lemma snode_if c th rest : snode (SIf c th rest) = NIf 0 (NIfCond 0 (Some (cnode c)) (NList 0 (bnodes th)) :: enodes rest). Proof. reflexivity. Qed.
Lemma snode_for x e body hasie ie : snode (SFor x e body hasie ie)
  = NFor 0 x (cnode e) (NList 0 (bnodes body)) (if hasie then Some (NList 0 (bnodes ie)) else None). Proof. reflexivity. Qed.
Lemma sdepth_for x e body hasie ie : sdepth (SFor x e body hasie ie) = S (S (Nat.max (cdepth e) (Nat.max (bdepth body) (bdepth ie)))). Proof. reflexivity. Qed.
Lemma snode_forrange x a1 rest body hasie ie : snode (SForRange x a1 rest body hasie ie)
  = NFor 0 x (NFunc 0 jn_range (cnode a1 :: map cnode rest)) (NList 0 (bnodes body)) (if hasie then Some (NList 0 (bnodes ie)) else None). Proof. reflexivity. Qed.
Lemma sdepth_forrange x a1 rest body hasie ie : sdepth (SForRange x a1 rest body hasie ie)
  = S (S (S (Nat.max (Nat.max (cdepth a1) (cdepths rest)) (Nat.max (bdepth body) (bdepth ie))))). Proof. reflexivity. Qed.
Lemma snode_css e sfx : snode (SCss e sfx) = NCss 0 (match e with Some x => Some (cnode x) | None => None end) sfx. Proof. reflexivity. Qed.
Lemma sdepth_css e sfx : sdepth (SCss e sfx) = S (S (match e with Some x => cdepth x | None => 0%nat end)). Proof. reflexivity. Qed.
Lemma snode_switch v cs : snode (SSwitch v cs) = NSwitch 0 (cnode v) (knodes cs). Proof. reflexivity. Qed.
Lemma bnodes_cons s r : bnodes (BCons s r) = snode s :: bnodes r. Proof. reflexivity. Qed.
Lemma enodes_else b : enodes (EElse b) = [NIfCond 0 None (NList 0 (bnodes b))]. Proof. reflexivity. Qed.
Lemma enodes_elif c th rest : enodes (EElif c th rest) = NIfCond 0 (Some (cnode c)) (NList 0 (bnodes th)) :: enodes rest. Proof. reflexivity. Qed.
Lemma knodes_default b : knodes (KDefault b) = [NSwitchCase 0 [] (NList 0 (bnodes b))]. Proof. reflexivity. Qed.
Lemma knodes_case v vs b rest : knodes (KCase v vs b rest) = NSwitchCase 0 (cnode v :: map cnode vs) (NList 0 (bnodes b)) :: knodes rest. Proof. reflexivity. Qed.

Lemma sdepth_if c th rest : sdepth (SIf c th rest) = S (S (Nat.max (cdepth c) (Nat.max (bdepth th) (edepth rest)))). Proof. reflexivity. Qed.
Lemma sdepth_switch v cs : sdepth (SSwitch v cs) = S (S (Nat.max (cdepth v) (kdepth cs))). Proof. reflexivity. Qed.
Lemma bdepth_cons s r : bdepth (BCons s r) = Nat.max (S (sdepth s)) (bdepth r). Proof. reflexivity. Qed.
Lemma edepth_else b : edepth (EElse b) = bdepth b. Proof. reflexivity. Qed.
Lemma edepth_elif c th rest : edepth (EElif c th rest) = Nat.max (cdepth c) (Nat.max (bdepth th) (edepth rest)). Proof. reflexivity. Qed.
Lemma kdepth_default b : kdepth (KDefault b) = bdepth b. Proof. reflexivity. Qed.
Lemma kdepth_case v vs b rest : kdepth (KCase v vs b rest) = Nat.max (Nat.max (cdepth v) (cdepths vs)) (Nat.max (bdepth b) (kdepth rest)). Proof. reflexivity. Qed.
Lemma cdepths_le x l : In x l -> (cdepth x <= cdepths l)%nat.
Proof. induction l as [|y r IH]; intro H; [contradiction|]. cbn [cdepths fold_right]. fold (cdepths r). destruct H as [->|H]; [lia|]. specialize (IH H). lia. Qed.

Lemma assoc_s_map_set m k q (v : value) : assoc_s q (map_set m k v) = if bstr_eqb q k then Some v else assoc_s q m.
Proof.
  induction m as [|[k1 v1] r IH]; cbn [map_set]; unfold assoc_s; fold (@assoc_s value).
  - reflexivity.
  - destruct (bstr_eqb k k1) eqn:E1.
    + apply bstr_eqb_true in E1. subst k1. unfold assoc_s; fold (@assoc_s value). destruct (bstr_eqb q k); reflexivity.
    + destruct (bstr_ltb k k1); unfold assoc_s; fold (@assoc_s value).
      * destruct (bstr_eqb q k); reflexivity.
      * rewrite IH. destruct (bstr_eqb q k1) eqn:E2; [|reflexivity].
        destruct (bstr_eqb q k) eqn:E3; [|reflexivity]. apply bstr_eqb_true in E2, E3. subst. rewrite bstr_eqb_refl in E1. discriminate.
Qed.
Lemma sc_lookup_set s k v x : s <> [] -> sc_lookup (sc_set s k v) x = if bstr_eqb x k then Some v else sc_lookup s x.
Proof.
  destruct s as [|f r]; [congruence|]. intros _. cbn [sc_set sc_lookup f_vars]. rewrite assoc_s_map_set. destruct (bstr_eqb x k); reflexivity.
Qed.


Lemma snode_letc name body : snode (SLetC name body) = NLetContent 0 name (NList 0 (bnodes body)). Proof. reflexivity. Qed.
Lemma sdepth_letc name body : sdepth (SLetC name body) = S (S (bdepth body)). Proof. reflexivity. Qed.

Definition envok (env : bstr -> option value) : Prop := forall k x, env k = Some x -> core_value x = true.

Section GoStmts.
Variable cf : cfg.
Hypothesis Hob : c_oblig cf = [].
Hypothesis ij_core : forall x, c_ij cf = Some x -> core_value x = true.
(* the data of the template being rendered: what data="all" passes on *)
Variable denv : bstr -> option value.
Hypothesis Hdenv : envok denv.
(* the text a template writes for given data, and a fuel that suffices for every call *)
Variable callee : bstr -> (bstr -> option value) -> option bstr.
Variable cfuel : nat.

(* the scope stack inside a template body: the innermost frame is not the entered one, and the frames from the entered
   one downwards (what alldata() returns) hold the template's data *)
Definition dinv (c : scope) : Prop :=
  exists f r s, c = f :: r /\ f_entered f = false /\ sc_alldata r = Some s /\ forall k, sc_lookup s k = denv k.
Lemma dinv_push c : dinv c -> dinv (sc_push c).
Proof.
  intros (f & r & s & -> & He & Ha & Hl). exists fresh_frame, (f :: r), s. split; [reflexivity|]. split; [reflexivity|].
  cbn [sc_alldata]. rewrite He. auto.
Qed.
Lemma dinv_set c k v : dinv c -> dinv (sc_set c k v).
Proof. intros (f & r & s & -> & He & Ha & Hl). cbn [sc_set]. eexists _, r, s. split; [reflexivity|]. cbn [f_entered]. auto. Qed.
Lemma dinv_nonempty c : dinv c -> c <> [].
Proof. intros (f & r & s & -> & _). discriminate. Qed.

Definition lookups (st : mstate) (env : bstr -> option value) : Prop := forall k, sc_lookup (ctx st) k = env k.
Definition agrees (st : mstate) (env : bstr -> option value) : Prop := lookups st env /\ dinv (ctx st).
Lemma agrees_ctx st st' env : ctx st' = ctx st -> agrees st env -> agrees st' env.
Proof. intros C [H D]. split; [intro k; rewrite C; apply H|rewrite C; exact D]. Qed.
Lemma agrees_pres st st' env : pres st st' -> agrees st env -> agrees st' env.
Proof. intros P. apply agrees_ctx. exact (pres_ctx _ _ P). Qed.
Lemma agrees_push st env : agrees st env -> agrees (set_ctx st (sc_push (ctx st))) env.
Proof. intros [H D]. split; [intro k; cbn; apply H|cbn [ctx set_ctx]; apply dinv_push; exact D]. Qed.

(* what a statement does to the renderer's state: it writes text to the current writer (wrote, of
   Proofs/MiniJSStmt.v: the innermost capture buffer, or the output); the mode stays; the scope stack
   keeps its frames below the innermost one, and looking a variable up gives the environment after the statement *)
Definition sres (m : M value) (st : mstate) (text : bstr) (env' : bstr -> option value) : Prop :=
  exists st' ws rv, m st = (Ok rv, st') /\ wrote st st' ws /\ concat_b ws = text /\ mode st' = mode st
                    /\ ctx st' <> [] /\ tl (ctx st') = tl (ctx st) /\ agrees st' env'.
(* a command that restores the scope; [st0] is the state the writer and the scope are compared with *)
Definition bres0 {A} (st0 : mstate) (m : M A) (st : mstate) (text : bstr) : Prop :=
  exists st' ws rv, m st = (Ok rv, st') /\ wrote st0 st' ws /\ concat_b ws = text /\ mode st' = mode st0 /\ ctx st' = ctx st0.
Notation bres m st text := (bres0 st m st text).

Lemma bres0_pres {A} st0 (m : M A) st text : pres st0 st -> bres m st text -> bres0 st0 m st text.
Proof.
  intros P (st' & ws & rv & E & W & T & M' & X). pose proof P as (C & Mo & _). exists st', ws, rv.
  split; [exact E|]. split; [exact (wrote_l _ _ _ _ (pres_wsame _ _ P) W)|]. repeat split; congruence.
Qed.
Lemma bres0_ret {A} st0 (m : M A) st text : bres0 st0 m st text -> bres0 st0 (_ <-- m ;;; ret VUndef) st text.
Proof. intros (st' & ws & rv & E & R). exists st', ws, VUndef. unfold mbind. rewrite E. split; [reflexivity|exact R]. Qed.
Lemma bres_sres m st text env : bres m st text -> ctx st <> [] -> agrees st env -> sres m st text env.
Proof.
  intros (st' & ws & rv & E & W & T & M' & X) Hn Ha. exists st', ws, rv.
  split; [exact E|]. split; [exact W|]. split; [exact T|]. split; [exact M'|]. split; [congruence|]. split; [congruence|].
  exact (agrees_ctx _ _ _ X Ha).
Qed.

Lemma walk_unfold f n st : walk cf (S f) n st = walk_node cf (walk cf f) n (set_cur st (pos_of n)).
Proof. reflexivity. Qed.

Lemma bres_walk F n st text : bres0 st (walk_node cf (walk cf F) n) (set_cur st (pos_of n)) text -> bres (walk cf (S F) n) st text.
Proof. exact (fun H => H). Qed.
(* what an expression of the subset leaves untouched is what the walker needs to go on *)
Lemma pres_ok st0 st env : pres st0 st -> wok st0 -> agrees st0 env -> wok st /\ agrees st env /\ mode st = mode st0.
Proof. intros P Hg Ha. split; [exact (wsame_wok _ _ (pres_wsame _ _ P) Hg)|]. split; [exact (agrees_pres _ _ _ P Ha)|apply P]. Qed.

Lemma go_eval f e st v env : agrees st env -> envok env -> (cdepth e < f)%nat -> ceval (c_ij cf) env e = Some v ->
  mok (eval (walk cf f) (cnode e)) st v.
Proof.
  intros Ha Hc Hf E. apply mok_eval. apply (interp_ceval cf st); auto.
  - intros k x Hk. rewrite (proj1 Ha) in Hk. eapply Hc; eauto.
  - rewrite (ceval_ext _ _ env (proj1 Ha)). exact E.
Qed.

Lemma go_case_hit F env sv vs : envok env -> (forall x, In x vs -> (cdepth x < F)%nat) -> forall st h, agrees st env ->
  khit (c_ij cf) env sv vs = Some h -> exists st', case_hit (walk cf F) sv (map cnode vs) st = (Ok h, st') /\ pres st st'.
Proof.
  intros Hc. induction vs as [|x r IH]; intros Hd st h Ha E; cbn [khit map case_hit] in *.
  - inversion E; subst. exists st. split; [reflexivity|apply pres_refl].
  - destruct (ceval (c_ij cf) env x) as [cv|] eqn:Ex; [|discriminate]. destruct (prim_value cv); [|discriminate].
    destruct (go_eval F x st cv env Ha Hc (Hd x (or_introl eq_refl)) Ex) as (st1 & E1 & P1).
    unfold mbind at 1. rewrite E1. destruct (equals sv cv).
    + inversion E; subst. exists st1. split; [reflexivity|exact P1].
    + destruct (IH (fun y Hy => Hd y (or_intror Hy)) st1 h (agrees_pres _ _ _ P1 Ha) E) as (st2 & E2 & P2).
      exists st2. split; [exact E2|eapply pres_trans; eauto].
Qed.

Lemma bres0_eval {A} F e (k : value -> M A) st0 st text env v : pres st0 st -> agrees st0 env -> envok env -> (cdepth e < F)%nat ->
  ceval (c_ij cf) env e = Some v -> (forall st2, pres st0 st2 -> bres0 st0 (k v) st2 text) ->
  bres0 st0 (x <-- eval (walk cf F) (cnode e) ;;; k x) st text.
Proof.
  intros P Ha Hc Hd Ev Hk. destruct (go_eval F e st v env (agrees_pres _ _ _ P Ha) Hc Hd Ev) as (st2 & E2 & P2).
  unfold bres0, mbind. rewrite E2. exact (Hk st2 (pres_trans _ _ _ P P2)).
Qed.
Lemma bres0_write st0 st w : pres st0 st -> wok st0 -> bres0 st0 (_ <-- write w ;;; ret VUndef) st w.
Proof.
  intros P Hg. destruct (write_wok w st (wsame_wok _ _ (pres_wsame _ _ P) Hg)) as (st2 & E2 & W2 & C2 & M2).
  exists st2, [w], VUndef. unfold mbind. rewrite E2. split; [reflexivity|]. split; [exact (wrote_l _ _ _ _ (pres_wsame _ _ P) W2)|].
  split; [cbn; apply app_nil_r|]. destruct P as (C & M & _). split; congruence.
Qed.

Definition GP_s (s : cstmt) : Prop := forall f st text env env',
  (cfuel + sdepth s < f)%nat -> wok st -> ctx st <> [] -> agrees st env -> envok env ->
  sout (c_ij cf) (mode st) go_print_text denv callee env s = Some (text, env') -> sres (walk cf f (snode s)) st text env'.
Definition GP_b (b : cblk) : Prop := forall f st text env,
  (cfuel + bdepth b <= f)%nat -> wok st -> ctx st <> [] -> agrees st env -> envok env ->
  bout (c_ij cf) (mode st) go_print_text denv callee env b = Some text ->
  exists st' ws, walk_list (walk cf f) (bnodes b) st = (Ok tt, st') /\ wrote st st' ws /\ concat_b ws = text
                 /\ mode st' = mode st /\ tl (ctx st') = tl (ctx st)
                 /\ (msg_ok b = true -> agrees st' env).      (* statements that bind nothing leave the scope as it is *)
Definition GP_e (e : celse) : Prop := forall F st text env,
  (cfuel + edepth e < F)%nat -> wok st -> agrees st env -> envok env ->
  eout (c_ij cf) (mode st) go_print_text denv callee env e = Some text -> bres (if_conds (walk cf F) (enodes e)) st text.
Definition GP_k (k : ccases) : Prop := forall F st text env sv,
  (cfuel + kdepth k < F)%nat -> wok st -> agrees st env -> envok env ->
  kout (c_ij cf) (mode st) go_print_text denv callee env sv k = Some text -> bres (switch_cases (walk cf F) sv (knodes k)) st text.
(* the parameters of a call: evaluated / rendered in the caller's scope in order, set in the innermost frame of the callee's data *)
Definition GP_p (ps : cparams) : Prop := forall F st cd base cenv env,
  (cfuel + pdepth ps < F)%nat -> agrees st env -> envok env ->
  pout (c_ij cf) (mode st) go_print_text denv callee env ps base = Some cenv -> cd <> [] -> (forall k, sc_lookup cd k = base k) -> envok base ->
  exists cd' st', call_params (walk cf F) (pnodes ps) cd st = (Ok cd', st') /\ pres st st'
                  /\ cd' <> [] /\ (forall k, sc_lookup cd' k = cenv k) /\ envok cenv.
(* the plural: walkPlural walks the selected body as a message of its own *)
Definition GP_q (q : cplur) : Prop := forall F st text env i,
  (cfuel + S (qdepth q) < F)%nat -> wok st -> ctx st <> [] -> agrees st env -> envok env ->
  qout (c_ij cf) (mode st) go_print_text denv callee env i q = Some text ->
  exists st' ws, plural_pick (walk cf F) 0 i (qdnodes q) (qcnodes q) st = (Ok tt, st') /\ wrote st st' ws /\ concat_b ws = text
                 /\ mode st' = mode st /\ ctx st' <> [] /\ tl (ctx st') = tl (ctx st) /\ agrees st' env.

Lemma envok_set env k v : envok env -> core_value v = true -> envok (env_set env k v).
Proof. intros H Hv q x. unfold env_set. destruct (bstr_eqb q k); [intro E; inversion E; subst; exact Hv|apply H]. Qed.

Lemma snode_call name d ps : snode (SCall name d ps) = NCall 0 name (cdata_all d) (cdata_node d) (pnodes ps). Proof. reflexivity. Qed.
Lemma sdepth_call name d ps : sdepth (SCall name d ps) = S (S (Nat.max (ddepth d) (pdepth ps))). Proof. reflexivity. Qed.
Lemma snode_msg body : snode (SMsg body) = NMsg 0 0 [] [] (mnodes body). Proof. reflexivity. Qed.
Lemma sdepth_msg body : sdepth (SMsg body) = S (bdepth body). Proof. reflexivity. Qed.
Lemma snode_msgpl pn v q : snode (SMsgPl pn v q) = NMsg 0 0 [] [] [NMsgPlural 0 pn (cnode v) (qcnodes q) (qdnodes q)]. Proof. reflexivity. Qed.
Lemma sdepth_msgpl pn v q : sdepth (SMsgPl pn v q) = S (S (S (S (Nat.max (cdepth v) (qdepth q))))). Proof. reflexivity. Qed.
Lemma qcnodes_dflt b : qcnodes (QDflt b) = []. Proof. reflexivity. Qed.
Lemma qcnodes_case z b r : qcnodes (QCase z b r) = NMsgPluralCase 0 z (mnodes b) :: qcnodes r. Proof. reflexivity. Qed.
Lemma qdnodes_dflt b : qdnodes (QDflt b) = mnodes b. Proof. reflexivity. Qed.
Lemma qdnodes_case z b r : qdnodes (QCase z b r) = qdnodes r. Proof. reflexivity. Qed.
Lemma qdepth_dflt b : qdepth (QDflt b) = bdepth b. Proof. reflexivity. Qed.
Lemma qdepth_case z b r : qdepth (QCase z b r) = Nat.max (bdepth b) (qdepth r). Proof. reflexivity. Qed.
Lemma pnodes_val k e r : pnodes (PVal k e r) = NParamValue 0 k (cnode e) :: pnodes r. Proof. reflexivity. Qed.
Lemma pnodes_cont k body r : pnodes (PCont k body r) = NParamContent 0 k (NList 0 (bnodes body)) :: pnodes r. Proof. reflexivity. Qed.
Lemma pdepth_val k e r : pdepth (PVal k e r) = Nat.max (cdepth e) (pdepth r). Proof. reflexivity. Qed.
Lemma pdepth_cont k body r : pdepth (PCont k body r) = Nat.max (bdepth body) (pdepth r). Proof. reflexivity. Qed.

Lemma go_core st env e v : agrees st env -> envok env -> ceval (c_ij cf) env e = Some v -> core_value v = true.
Proof.
  intros Ha Hc Ev. apply (ceval_core cf st) with (e := e); auto.
  - intros k x Hk. rewrite (proj1 Ha) in Hk. eapply Hc; eauto.
  - rewrite (ceval_ext _ _ env (proj1 Ha)). exact Ev.
Qed.
Lemma go_envok st mode env s text env' : agrees st env -> envok env ->
  sout (c_ij cf) mode go_print_text denv callee env s = Some (text, env') -> envok env'.
Proof.
  intros Ha Hc E. apply sout_env in E. destruct s; try (subst env'; exact Hc).
  - destruct E as (v & Ev & ->). apply envok_set; [exact Hc|exact (go_core st env e v Ha Hc Ev)].
  - destruct E as (t & ->). apply envok_set; [exact Hc|reflexivity].
Qed.

(* the template a call names exists, and entering it with a scope that holds the callee's data writes the callee's text
   and gives the caller's scope and mode back: for the entry template of the induction on the call depth this is the
   induction hypothesis *)
Hypothesis Hfind : forall name cenv text, callee name cenv = Some text ->
  exists t, find_template (r_templates (c_reg cf)) name = Some t /\
    forall f st cd, (cfuel <= f)%nat -> wok st -> cd <> [] -> (forall k, sc_lookup cd k = cenv k) -> envok cenv ->
      exists st' ws rv, call_enter (walk cf f) t cd st = (Ok rv, st') /\ wrote st st' ws /\ concat_b ws = text
                        /\ mode st' = mode st /\ ctx st' = ctx st.

(* evalCall's data: a fresh frame over nothing, over the frames alldata() returns, or over the map the expression gives *)
Lemma go_call_data F d st env base : agrees st env -> envok env -> (ddepth d < F)%nat ->
  cdata_env (c_ij cf) denv env d = Some base ->
  exists cd st', call_data (walk cf F) (cdata_all d) (cdata_node d) st = (Ok cd, st') /\ pres st st'
                 /\ cd <> [] /\ (forall k, sc_lookup cd k = base k) /\ envok base.
Proof.
  intros Ha Hc Hd E. unfold call_data. unfold mbind at 1. cbn [get]. destruct d as [| |e]; cbn [cdata_env cdata_all cdata_node ddepth] in *.
  - inversion E; subst. exists [fresh_frame], st. split; [reflexivity|]. split; [apply pres_refl|]. split; [discriminate|].
    split; [intro k; reflexivity|intros k x Hk; discriminate].
  - inversion E; subst. destruct (proj2 Ha) as (f & r & s & Ec & He & Hal & Hl). rewrite Ec. cbn [sc_alldata]. rewrite He, Hal.
    exists (sc_push s), st. split; [reflexivity|]. split; [apply pres_refl|]. split; [discriminate|].
    split; [intro k; cbn [sc_push sc_lookup fresh_frame f_vars]; apply Hl|exact Hdenv].
  - destruct (ceval (c_ij cf) env e) as [[| | | | | | |lid m]|] eqn:Ev; try discriminate.
    destruct (forallb (fun kv => is_ident (fst kv)) m); [|discriminate]. inversion E; subst. clear E.
    destruct (go_eval F e st (VMap lid m) env Ha Hc Hd Ev) as (st2 & E2 & P2).
    unfold mbind at 1. rewrite E2. exists (sc_push (new_scope lid m)), st2. split; [reflexivity|]. split; [exact P2|]. split; [discriminate|].
    pose proof (go_core st env e _ Ha Hc Ev) as Hcm. cbn [core_value] in Hcm.
    split.
    + intro k. cbn [sc_push new_scope sc_lookup fresh_frame f_vars]. unfold assoc_s at 1. destruct (assoc_s k m); reflexivity.
    + intros k x Hk. exact (core_assoc k m x Hcm Hk).
Qed.

(* a block: NList pushes an (empty) frame, walks its statements, pops *)
Lemma go_block b F st text env : GP_b b -> (cfuel + bdepth b < F)%nat -> wok st -> agrees st env -> envok env ->
  bout (c_ij cf) (mode st) go_print_text denv callee env b = Some text -> bres (walk cf F (NList 0 (bnodes b))) st text.
Proof.
  intros Hb Hd Hg Ha Hc E. destruct F as [|f]; [lia|]. unfold bres0. rewrite walk_unfold. cbn [walk_node].
  match goal with |- context [set_cur st ?p] => set (st1 := set_cur st p) end. unfold mbind at 1. unfold m_push. cbn [modify].
  set (st2 := set_ctx st1 (sc_push (ctx st1))).
  assert (S2 : wsame st st2) by (subst st2 st1; repeat split).
  assert (A2 : agrees st2 env) by (subst st2; apply agrees_push; subst st1; exact Ha).
  assert (M2 : mode st2 = mode st) by reflexivity.
  assert (N2 : ctx st2 <> []) by (subst st2; cbn; discriminate).
  destruct (Hb f st2 text env ltac:(lia) (wsame_wok _ _ S2 Hg) N2 A2 Hc) as (st3 & ws & E3 & W3 & C3 & M3 & X3 & _). { rewrite M2. exact E. }
  unfold mbind at 1. rewrite E3. unfold mbind at 1. unfold m_pop. cbn [modify ret].
  exists (set_ctx st3 (sc_pop (ctx st3))), ws, VUndef. split; [reflexivity|].
  split; [apply (wrote_r _ st3); [exact (wrote_l _ _ _ _ S2 W3)|repeat split]|].
  split; [exact C3|]. cbn [set_ctx ctx mode]. split; [congruence|]. unfold sc_pop. rewrite X3. reflexivity.
Qed.

(* renderBlock: a fresh capture buffer, the block, the buffer popped and returned as a string; any writer will do *)
Lemma go_render_block b F st text env : GP_b b -> (cfuel + bdepth b < F)%nat -> agrees st env -> envok env ->
  bout (c_ij cf) (mode st) go_print_text denv callee env b = Some text ->
  exists st', render_block (walk cf F) (NList 0 (bnodes b)) st = (Ok text, st') /\ wsame st st' /\ ctx st' = ctx st /\ mode st' = mode st.
Proof.
  intros Hb Hd Ha Hc E. unfold render_block. unfold mbind at 1. cbn [modify].
  remember (set_bufs st ([] :: bufs st)) as st2 eqn:Hst2.
  assert (B2 : bufs st2 = [] :: bufs st) by (subst st2; reflexivity).
  assert (R2 : ctx st2 = ctx st /\ mode st2 = mode st /\ out st2 = out st /\ calls_left st2 = calls_left st /\ bytes_left st2 = bytes_left st)
    by (subst st2; repeat split).
  destruct R2 as (C2 & M2 & O2 & L2 & Y2). clear Hst2.
  assert (W2 : wok st2) by (unfold wok; rewrite B2; exact I).
  assert (A2 : agrees st2 env) by (exact (agrees_ctx _ _ _ C2 Ha)).
  destruct (go_block b F st2 text env Hb Hd W2 A2 Hc) as (st3 & ws & rv & E3 & W3 & T3 & M3 & X3). { rewrite M2. exact E. }
  unfold mbind at 1. rewrite E3. unfold mbind at 1. cbn [get].
  destruct W3 as (L3 & Y3 & W3). rewrite B2 in W3. destruct W3 as [B3 O3].
  rewrite B3. unfold mbind at 1. cbn [modify ret].
  eexists. split; [rewrite app_nil_r, rev_involutive, T3; reflexivity|].
  unfold wsame. cbn [out bufs calls_left bytes_left ctx mode set_bufs]. repeat split; congruence.
Qed.

Lemma go_set st name v env : ctx st <> [] -> agrees st env ->
  exists st', m_set name v st = (Ok tt, st') /\ wsame st st' /\ mode st' = mode st
              /\ ctx st' <> [] /\ tl (ctx st') = tl (ctx st) /\ agrees st' (env_set env name v).
Proof.
  intros Hn Ha. unfold m_set. destruct (ctx st) as [|fr rs] eqn:Ec; [congruence|].
  match goal with |- context [set_ctx ?a ?b] => set (st3 := set_ctx a b) end.
  exists st3. split; [reflexivity|].
  assert (H3 : out st3 = out st /\ mode st3 = mode st /\ bufs st3 = bufs st /\ calls_left st3 = calls_left st /\ bytes_left st3 = bytes_left st
               /\ ctx st3 = sc_set (fr :: rs) name v).
  { subst st3. destruct (sc_top_origin (fr :: rs)); cbn; auto 10. }
  destruct H3 as (O3 & M3 & B3 & L3 & Y3 & C3).
  split; [repeat split; assumption|]. split; [exact M3|]. split; [rewrite C3; cbn [sc_set]; discriminate|].
  split; [rewrite C3; reflexivity|].
  split.
  - intro k. rewrite C3, sc_lookup_set by discriminate. unfold env_set. rewrite <- Ec. rewrite (proj1 Ha). reflexivity.
  - rewrite C3, <- Ec. apply dinv_set. exact (proj2 Ha).
Qed.

(* the rounds of a loop: $x and the hidden $x.index are set in the loop's frame, the body is a block *)
Lemma go_rounds body (HB : GP_b body) F x m : (cfuel + bdepth body < F)%nat ->
  forall items i st envk text, mode st = m ->
    wok st -> ctx st <> [] -> agrees st envk -> envok envk ->
    (forall v, In v items -> core_value v = true) -> (0 <= i)%Z -> small (i + Z.of_nat (length items)) = true ->
    for_out (fun en => bout (c_ij cf) m go_print_text denv callee en body) x envk i items = Some text ->
    exists st' ws, for_items (walk cf F) x (NList 0 (bnodes body)) i items st = (Ok tt, st') /\ wrote st st' ws /\ concat_b ws = text
                   /\ mode st' = mode st /\ ctx st' <> [] /\ tl (ctx st') = tl (ctx st).
Proof.
  intro Hd. induction items as [|v r IH]; intros i st envk text Hm Hg Hn Ha Hc Hcore Hi Hsm Ef; cbn [for_out for_items] in *.
  - inversion Ef; subst. exists st, []. split; [reflexivity|]. split; [apply wsame_wrote, wsame_refl|auto].
  - change s_index with jk_index.
    set (env1 := env_set (env_set envk x v) (x ++ jk_index) (VInt i)) in *.
    destruct (bout (c_ij cf) m go_print_text denv callee env1 body) as [t|] eqn:Et; [|discriminate].
    destruct (for_out (fun en => bout (c_ij cf) m go_print_text denv callee en body) x env1 (i + 1)%Z r) as [t'|] eqn:Er; [|discriminate].
    inversion Ef; subst text. clear Ef.
    destruct (go_set st x v envk Hn Ha) as (st1 & E1 & S1 & M1 & N1 & T1 & A1).
    destruct (go_set st1 (x ++ jk_index) (VInt i) _ N1 A1) as (st2 & E2 & S2 & M2 & N2 & T2 & A2).
    unfold mbind at 1. rewrite E1. unfold mbind at 1. rewrite E2.
    pose proof (wsame_trans _ _ _ S1 S2) as S12.
    assert (Hc1 : envok env1).
    { apply envok_set; [apply envok_set; [exact Hc|apply Hcore; left; reflexivity]|].
      apply (small_between i (i + Z.of_nat (length (v :: r)))); [cbn [length]; lia|exact Hsm]. }
    destruct (go_block body F st2 t env1 HB Hd (wsame_wok _ _ S12 Hg) A2 Hc1) as (st3 & ws & rv & E3 & W3 & C3 & M3 & X3).
    { rewrite M2, M1, Hm. exact Et. }
    unfold mbind at 1. rewrite E3.
    destruct (IH (i + 1)%Z st3 env1 t') as (st4 & ws4 & E4 & W4 & C4 & M4 & N4 & T4).
    + congruence.
    + exact (wrote_wok _ _ _ W3 (wsame_wok _ _ S12 Hg)).
    + congruence.
    + exact (agrees_ctx _ _ _ X3 A2).
    + exact Hc1.
    + intros v' Hv'. apply Hcore. right. exact Hv'.
    + lia.
    + replace (i + 1 + Z.of_nat (length r))%Z with (i + Z.of_nat (length (v :: r)))%Z by (cbn [length]; lia). exact Hsm.
    + exact Er.
    + exists st4, (ws ++ ws4). split; [exact E4|]. split; [exact (wrote_trans _ _ _ _ _ (wrote_l _ _ _ _ S12 W3) W4)|].
      split; [rewrite concat_b_app; congruence|]. split; [congruence|]. split; [exact N4|congruence].
Qed.

Lemma go_eval_list F env es : envok env -> (forall y, In y es -> (cdepth y < F)%nat) -> forall zs st1, agrees st1 env ->
  cints (c_ij cf) env es = Some zs ->
  exists st2, eval_list (walk cf F) (map cnode es) st1 = (Ok (map VInt zs), st2) /\ pres st1 st2.
Proof.
  intros Hc. induction es as [|e r IH]; intros Hd zs st1 Ha E; cbn [cints map eval_list] in *.
  - inversion E; subst. exists st1. split; [reflexivity|apply pres_refl].
  - destruct (ceval (c_ij cf) env e) as [[| | |z| | | |]|] eqn:Ee; try discriminate.
    destruct (cints (c_ij cf) env r) as [zr|] eqn:Er; [|discriminate]. inversion E; subst zs. clear E.
    destruct (go_eval F e st1 (VInt z) env Ha Hc (Hd e (or_introl eq_refl)) Ee) as (st2 & E2 & P2).
    unfold mbind at 1. rewrite E2.
    destruct (IH (fun y Hy => Hd y (or_intror Hy)) zr st2 (agrees_pres _ _ _ P2 Ha) eq_refl) as (st3 & E3 & P3).
    unfold mbind at 1. rewrite E3. cbn [ret map]. exists st3. split; [reflexivity|eapply pres_trans; eauto].
Qed.

Lemma range_list_items f i l s : range_list f i l s = range_items f i l s.
Proof. revert i. induction f as [|f IH]; intro i; cbn [range_list range_items]; [reflexivity|]. rewrite IH. reflexivity. Qed.

Lemma fresh_list_or_nil_pres l st1 : exists lid st2, fresh_list_or_nil l st1 = (Ok (VList lid l), st2) /\ pres st1 st2.
Proof.
  unfold fresh_list_or_nil. destruct l as [|v r]; eexists; eexists; (split; [reflexivity|]); [apply pres_refl|repeat split].
Qed.

(* range(..) as the renderer evaluates it: the list of the subset semantics, whatever identity it gets *)
Lemma go_range_eval st F env a1 rest zs a l stp : agrees st env -> envok env ->
  cints (c_ij cf) env (a1 :: rest) = Some zs -> range_args 0%Z 1%Z zs = Some (a, l, stp) -> (0 < stp)%Z ->
  (forall y, In y (a1 :: rest) -> (cdepth y < F)%nat) ->
  small a = true /\ small l = true /\
  forall st1, agrees st1 env ->
    exists lid, mok (eval (walk cf (S F)) (NFunc 0 jn_range (cnode a1 :: map cnode rest))) st1
                    (VList lid (range_items (Z.to_nat (Z.max 0 (l - a))) a l stp)).
Proof.
  intros Ha Hc Hci Hr Hst Hd.
  destruct (cints_range _ _ _ zs a l stp Hci Hr) as (ci & cl & cs & _ & Ea & El & _).
  split; [exact (go_core st env ci _ Ha Hc Ea)|]. split; [exact (go_core st env cl _ Ha Hc El)|].
  assert (Hlz : length zs = length (a1 :: rest)).
  { pose proof (f_equal (@length _) (cints_map _ _ _ _ Hci)) as H. rewrite !map_length in H. symmetry. exact H. }
  destruct (range_cnt_bound a l stp Hst) as (C0 & C1 & C2).
  (* the list with the renderer's fuel *)
  assert (Hgo : forall fuel, (range_cnt a l stp <= Z.of_nat fuel)%Z ->
            range_list fuel a l stp = range_items (Z.to_nat (Z.max 0 (l - a))) a l stp).
  { intros fuel Hfu. rewrite range_list_items, !(range_items_spec stp l Hst) by lia. reflexivity. }
  assert (Happ : apply_func jn_range (map VInt zs) = Ok (FNewList (range_items (Z.to_nat (Z.max 0 (l - a))) a l stp)) /\ (1 <= length zs <= 3)%nat).
  { destruct zs as [|z1 [|z2 [|z3 [|z4 zr]]]]; cbn [range_args] in Hr; inversion Hr; subst; (split; [|cbn; lia]); cbn [map].
    - change (apply_func jn_range [VInt l]) with (Ok (FNewList (range_list (Z.to_nat l) 0 l 1))).
      rewrite Hgo; [reflexivity|]. unfold range_cnt. rewrite Z.div_1_r. lia.
    - change (apply_func jn_range [VInt a; VInt l]) with (Ok (FNewList (range_list (Z.to_nat (l - a)) a l 1))).
      rewrite Hgo; [reflexivity|]. unfold range_cnt. rewrite Z.div_1_r. lia.
    - change (apply_func jn_range [VInt a; VInt l; VInt stp])
        with (if (stp <=? 0)%Z then Err e_range else Ok (FNewList (range_list (Z.to_nat ((l - a) / stp + 1)) a l stp))).
      replace (stp <=? 0)%Z with false by (symmetry; apply Z.leb_gt; lia).
      rewrite Hgo; [reflexivity|]. unfold range_cnt.
      assert ((l - a + stp - 1) / stp <= (l - a) / stp + 1)%Z.
      { replace ((l - a) / stp + 1)%Z with ((l - a + 1 * stp) / stp)%Z by (rewrite Z.div_add by lia; reflexivity).
        apply Z.div_le_mono; lia. }
      lia. }
  destruct Happ as (Happ & Hlz3).
  intros st1 Ha1.
  destruct (go_eval_list F env (a1 :: rest) Hc Hd zs (set_cur st1 0) (agrees_pres _ _ _ (pres_set_cur _ _) Ha1) Hci)
    as (st2 & E2 & P2).
  destruct (fresh_list_or_nil_pres (range_items (Z.to_nat (Z.max 0 (l - a))) a l stp) st2) as (lid & st3 & E3 & P3).
  exists lid. apply mok_eval. apply walk_S. cbn [walk_node pos_of].
  replace (fn_is jn_range n_index || fn_is jn_range n_isFirst || fn_is jn_range n_isLast) with false by reflexivity.
  exists st3. split; [|eapply pres_trans; eauto].
  unfold call_func. replace (func_arities jn_range) with (Some [1; 2; 3]) by (vm_compute; reflexivity).
  change (cnode a1 :: map cnode rest) with (map cnode (a1 :: rest)). rewrite map_length, <- Hlz.
  replace (negb (mem (N.of_nat (length zs)) [1; 2; 3])) with false
    by (destruct zs as [|? [|? [|? [|? ?]]]]; cbn [length] in Hlz3; try lia; reflexivity).
  unfold mbind at 1. rewrite E2. unfold mbind at 1. rewrite Happ. cbn [lift]. exact E3.
Qed.

(* visitFor / evalFor once the list expression has its value: foreach and for-range share it *)
Lemma go_for_walk x lst body hasie ie (IHb : GP_b body) (IHi : GP_b ie) F st l text env :
  (cfuel + bdepth body < F)%nat -> (cfuel + bdepth ie < F)%nat -> wok st -> ctx st <> [] -> agrees st env -> envok env ->
  (forall st1, pres st st1 -> exists lid, mok (eval (walk cf F) lst) st1 (VList lid l)) ->
  small (Z.of_nat (length l)) = true -> forallb core_value l = true ->
  for_text (c_ij cf) (mode st) go_print_text denv callee x body hasie ie env l text ->
  bres (walk cf (S F) (NFor 0 x lst (NList 0 (bnodes body)) (if hasie then Some (NList 0 (bnodes ie)) else None))) st text.
Proof.
  intros Hdb Hdi Hg Hn Ha Hc Hev Hsm Hcl Hout.
  unfold bres0. rewrite walk_unfold. cbn [walk_node].
  match goal with |- context [set_cur st ?p] => set (st1 := set_cur st p) end.
  assert (P1 : pres st st1) by apply pres_set_cur.
  destruct (Hev st1 P1) as (lid & st2 & E2 & P2).
  pose proof (pres_trans _ _ _ P1 P2) as P. assert (Mo : mode st2 = mode st) by apply P.
  pose proof (wsame_wok _ _ (pres_wsame _ _ P) Hg) as Hg2.
  pose proof (agrees_pres _ _ _ P Ha) as Ha2.
  unfold for_text in Hout. destruct l as [|v0 r0].
  - destruct hasie.
    + unfold mbind at 1. rewrite E2.
      apply (bres0_pres st _ st2 text P). apply bres0_ret. apply (go_block ie F st2 text env); auto. rewrite Mo. exact Hout.
    + subst text. unfold mbind at 1. rewrite E2. exists st2, [], VUndef. split; [reflexivity|].
      split; [apply wsame_wrote; exact (pres_wsame _ _ P)|]. split; [reflexivity|]. split; [exact Mo|apply P].
  - unfold mbind at 1. rewrite E2. cbn iota.
    set (l := v0 :: r0) in *. set (last := (Z.of_nat (length l) - 1)%Z) in *.
    unfold mbind at 1. unfold m_push. cbn [modify].
    set (stp := set_ctx st2 (sc_push (ctx st2))).
    assert (Sp : wsame st2 stp) by (subst stp; repeat split).
    assert (Ap : agrees stp env) by (subst stp; apply agrees_push; exact Ha2).
    assert (Np : ctx stp <> []) by (subst stp; cbn; discriminate).
    change s_lastindex with c_lastindex.
    destruct (go_set stp (x ++ c_lastindex) (VInt last) env Np Ap) as (st3 & E3 & S3 & M3 & N3 & T3 & A3).
    unfold mbind at 1. fold last. rewrite E3.
    assert (Hlast : small last = true) by (apply (small_between last (Z.of_nat (length l))); [subst last l; cbn [length]; lia|exact Hsm]).
    destruct (go_rounds body IHb F x (mode st) Hdb l 0%Z st3 (env_set env (x ++ c_lastindex) (VInt last)) text) as (st4 & ws & E4 & W4 & C4 & M4 & N4 & T4).
    + rewrite M3. subst stp. cbn. exact Mo.
    + exact (wsame_wok _ _ (wsame_trans _ _ _ Sp S3) Hg2).
    + exact N3.
    + exact A3.
    + apply envok_set; [exact Hc|exact Hlast].
    + intros v Hv. exact (proj1 (forallb_forall _ _) Hcl v Hv).
    + lia.
    + exact Hsm.
    + exact Hout.
    + unfold mbind at 1. rewrite E4. unfold mbind at 1. unfold m_pop. cbn [modify ret].
      exists (set_ctx st4 (sc_pop (ctx st4))), ws, VUndef. split; [reflexivity|].
      split; [apply (wrote_r _ st4); [|repeat split];
              exact (wrote_l _ _ _ _ (wsame_trans _ _ _ (pres_wsame _ _ P) (wsame_trans _ _ _ Sp S3)) W4)|].
      split; [exact C4|]. cbn [set_ctx ctx mode]. split; [rewrite M4, M3; subst stp; cbn; exact Mo|].
      unfold sc_pop. rewrite T4, T3. subst stp. cbn. apply P.
Qed.

(* walkMsgBody on the children of a message without plural: raw text is walked, a placeholder's body is walked *)
Lemma go_msg_body F body : msg_ok body = true -> forall st,
  msg_body (walk cf F) 0 (mnodes body) st = walk_list (walk cf F) (bnodes body) st.
Proof.
  induction body as [|s r IH]; intros Hm st; [reflexivity|]. cbn [msg_ok] in Hm. apply andb_prop in Hm as [Hs Hr].
  cbn [mnodes bnodes]. fold bnodes.
  assert (Hstep : forall x, msg_body (walk cf F) 0 (x :: mnodes r) st = (_ <-- walk cf F (snode s) ;;; msg_body (walk cf F) 0 (mnodes r)) st ->
                  msg_body (walk cf F) 0 (x :: mnodes r) st = walk_list (walk cf F) (snode s :: bnodes r) st).
  { intros x Hx. rewrite Hx. cbn [walk_list]. unfold mbind. destruct (walk cf F (snode s) st) as [[v| | | | |] st1]; try reflexivity. apply IH; exact Hr. }
  destruct s; try discriminate Hs; apply Hstep; reflexivity.
Qed.

Lemma go_msg_stmt body : GP_b body -> GP_s (SMsg body).
Proof.
  intros IHb f st text env env' Hf Hg Hn Ha Hc E. rewrite sout_msg in E.
    destruct (msg_ok body) eqn:Hm; [|discriminate].
    destruct (bout (c_ij cf) (mode st) go_print_text denv callee env body) as [t|] eqn:Et; [|discriminate]. inversion E; subst. clear E.
    rewrite sdepth_msg in Hf. destruct f as [|F]; [lia|]. unfold sres. rewrite walk_unfold, snode_msg. cbn [walk_node].
    match goal with |- context [set_cur st ?p] => set (st1 := set_cur st p) end.
    assert (P1 : pres st st1) by apply pres_set_cur. pose proof P1 as (C1 & M1 & _).
    destruct (IHb F st1 text env' ltac:(lia) (wsame_wok _ _ (pres_wsame _ _ P1) Hg) ltac:(congruence) (agrees_pres _ _ _ P1 Ha) Hc)
      as (st2 & ws & E2 & W2 & T2 & M2 & X2 & A2). { rewrite M1. exact Et. }
    unfold mbind at 1. rewrite (go_msg_body F body Hm), E2. cbn [ret].
    exists st2, ws, VUndef. split; [reflexivity|]. split; [exact (wrote_l _ _ _ _ (pres_wsame _ _ P1) W2)|]. split; [exact T2|].
    split; [congruence|]. split; [exact (dinv_nonempty _ (proj2 (A2 Hm)))|]. split; [congruence|exact (A2 Hm)].
Qed.

Lemma go_mbind_ok {A B} (m : M A) (f : A -> M B) st x st' r : m st = (Ok x, st') -> f x st' = r -> mbind m f st = r.
Proof. intros H <-. unfold mbind. rewrite H. reflexivity. Qed.

(* walkPlural's choice walks the body as a message *)
Lemma go_plural_body b F st text env : GP_b b -> (cfuel + S (bdepth b) < F)%nat -> wok st -> ctx st <> [] -> agrees st env -> envok env ->
  (if msg_ok b then bout (c_ij cf) (mode st) go_print_text denv callee env b else None) = Some text ->
  exists st' ws, (_ <-- walk cf F (NMsg 0 0 [] [] (mnodes b)) ;;; ret tt) st = (Ok tt, st') /\ wrote st st' ws /\ concat_b ws = text
                 /\ mode st' = mode st /\ ctx st' <> [] /\ tl (ctx st') = tl (ctx st) /\ agrees st' env.
Proof.
  intros IHb Hf Hg Hn Ha Hc E.
  destruct (go_msg_stmt b IHb F st text env env ltac:(rewrite sdepth_msg; lia) Hg Hn Ha Hc) as (st' & ws & rv & E1 & W & T & Mo & N & Tl & A).
  { rewrite sout_msg. destruct (msg_ok b); [|discriminate]. rewrite E. reflexivity. }
  rewrite snode_msg in E1. exists st', ws. split; [exact (go_mbind_ok _ _ _ _ _ _ E1 eq_refl)|]. split; [exact W|]. split; [exact T|]. split; [exact Mo|]. split; [exact N|]. split; [exact Tl|exact A].
Qed.

Lemma go_raw t : GP_s (SRaw t).
Proof.
  intros f st text env env' Hf Hg Hn Ha Hc E. rewrite sout_raw in E. inversion E; subst.
  destruct f as [|f]; [cbn in Hf; lia|]. apply bres_sres; auto. apply bres_walk, bres0_write; [apply pres_set_cur|exact Hg].
Qed.

Lemma go_print e ds : GP_s (SPrint e ds).
Proof.
  intros f st text env env' Hf Hg Hn Ha Hc E. rewrite sout_print in E.
  apply some_bind in E as (v & Ev & E). apply some_bind in E as (str & Es & E). apply some_if in E as [_ E]. inversion E; subst. clear E.
  apply bres_sres; auto. rewrite snode_print. destruct (scalar_string_ok v str Es) as (Hp & Hvs & _).
  destruct (interp_print_dirs_w cf e ds f st v str Hob Hg) as (st' & E1 & W1 & X1 & M1); auto.
  - intros k x Hk. rewrite (proj1 Ha) in Hk. eapply Hc; eauto.
  - cbn [sdepth] in Hf. lia.
  - rewrite (ceval_ext _ _ env' (proj1 Ha)). exact Ev.
  - destruct v; try discriminate; discriminate.
  - exists st', (go_print_writes (mode st) ds str), VUndef. split; [exact E1|]. split; [exact W1|]. split; [apply go_print_writes_text|]. split; [exact M1|exact X1].
Qed.

(* a let: once its value is there (st2; nothing was written, the scope is as before) the name is bound in the innermost frame *)
Lemma go_bind {A} (m : M A) (val : A -> value) st st1 st2 x name env : pres st st1 -> m st1 = (Ok x, st2) ->
  wsame st1 st2 -> ctx st2 = ctx st1 -> mode st2 = mode st1 -> ctx st <> [] -> agrees st env ->
  exists st' ws rv, (y <-- m ;;; _ <-- m_set name (val y) ;;; ret VUndef) st1 = (Ok rv, st') /\ wrote st st' ws /\ concat_b ws = []
                    /\ mode st' = mode st /\ ctx st' <> [] /\ tl (ctx st') = tl (ctx st) /\ agrees st' (env_set env name (val x)).
Proof.
  intros (C1 & M1 & P1) E S2 C2 M2 Hn Ha.
  destruct (go_set st2 name (val x) env ltac:(congruence) (agrees_ctx _ _ _ (eq_trans C2 C1) Ha)) as (st3 & E3 & S3 & M3 & N3 & T3 & A3).
  exists st3, [], VUndef. unfold mbind. rewrite E, E3. split; [reflexivity|].
  split; [apply wsame_wrote; exact (wsame_trans _ _ _ (pres_wsame _ _ (conj C1 (conj M1 P1))) (wsame_trans _ _ _ S2 S3))|]. split; [reflexivity|].
  split; [congruence|]. split; [exact N3|]. split; [congruence|exact A3].
Qed.

Lemma go_let name e : GP_s (SLet name e).
Proof.
  intros f st text env env' Hf Hg Hn Ha Hc E. rewrite sout_let in E.
  apply some_ifn in E as [_ E]. apply some_if in E as [_ E]. apply some_bind in E as (v & Ev & E). inversion E; subst. clear E.
  cbn [sdepth] in Hf. destruct f as [|f]; [lia|].
  pose proof (pres_set_cur st (pos_of (snode (SLet name e)))) as P1.
  destruct (go_eval f e _ v env (agrees_pres _ _ _ P1 Ha) Hc ltac:(lia) Ev) as (st2 & E2 & P2).
  exact (go_bind _ (fun y => y) st _ st2 v name env P1 E2 (pres_wsame _ _ P2) (proj1 P2) (proj1 (proj2 P2)) Hn Ha).
Qed.

Lemma go_letc name body : GP_b body -> GP_s (SLetC name body).
Proof.
  intros IHb f st text env env' Hf Hg Hn Ha Hc E. rewrite sout_letc in E.
  apply some_ifn in E as [_ E]. apply some_if in E as [_ E]. apply some_bind in E as (t & Et & E). inversion E; subst. clear E.
  rewrite sdepth_letc in Hf. destruct f as [|F]; [lia|].
  pose proof (pres_set_cur st (pos_of (snode (SLetC name body)))) as P1.
  destruct (go_render_block body F _ t env IHb ltac:(lia) (agrees_pres _ _ _ P1 Ha) Hc Et) as (st2 & E2 & S2 & C2 & M2).
  exact (go_bind _ VStr st _ st2 t name env P1 E2 S2 C2 M2 Hn Ha).
Qed.

(* after the condition: the block of the branch, or the rest of the chain *)
Lemma go_branch (h : bool) th (IHt : GP_b th) F env st0 st text (rest : M value) :
  (cfuel + bdepth th < F)%nat -> pres st0 st -> wok st0 -> agrees st0 env -> envok env ->
  (h = true -> bout (c_ij cf) (mode st0) go_print_text denv callee env th = Some text) ->
  (h = false -> forall st2, wok st2 -> agrees st2 env -> mode st2 = mode st0 -> bres rest st2 text) ->
  bres0 st0 (if h then _ <-- walk cf F (NList 0 (bnodes th)) ;;; ret VUndef else rest) st text.
Proof.
  intros Hd P Hg Ha Hc Ht Hr. destruct (pres_ok _ _ _ P Hg Ha) as (Hg2 & Ha2 & Mo). apply (bres0_pres st0 _ st text P). destruct h.
  - apply bres0_ret, (go_block th F st text env IHt); auto. rewrite Mo. auto.
  - apply Hr; auto.
Qed.

Lemma go_if c th (IHt : GP_b th) rest (IHr : GP_e rest) : GP_s (SIf c th rest).
Proof.
  intros f st text env env' Hf Hg Hn Ha Hc E. rewrite sout_if in E. apply some_bind in E as (v & Ev & E). apply some_with in E as [Et ->].
  rewrite sdepth_if in Hf. destruct f as [|F]; [lia|]. apply bres_sres; auto. apply bres_walk. rewrite snode_if. cbn [walk_node if_conds].
  apply (bres0_eval F c _ st _ text env v (pres_set_cur _ _) Ha Hc ltac:(lia) Ev). intros st2 P.
  apply (go_branch (truthy v) th IHt F env st st2 text); auto; try lia; destruct (truthy v); try discriminate; auto.
  intros _ st3 Hg3 Ha3 M3. apply (IHr F st3 text env); auto; [lia|]. rewrite M3. exact Et.
Qed.

Lemma go_switch v cs : GP_k cs -> GP_s (SSwitch v cs).
Proof.
  intros IHk f st text env env' Hf Hg Hn Ha Hc E. rewrite sout_switch in E.
  apply some_bind in E as (sv & Ev & E). apply some_if in E as [_ E]. apply some_with in E as [Et ->].
  rewrite sdepth_switch in Hf. destruct f as [|F]; [lia|]. apply bres_sres; auto. apply bres_walk. rewrite snode_switch. cbn [walk_node].
  apply (bres0_eval F v _ st _ text env sv (pres_set_cur _ _) Ha Hc ltac:(lia) Ev). intros st2 P.
  destruct (pres_ok _ _ _ P Hg Ha) as (Hg2 & Ha2 & Mo). apply (bres0_pres st _ st2 text P), (IHk F st2 text env sv); auto; [lia|]. rewrite Mo. exact Et.
Qed.

Lemma go_foreach x e body (IHb : GP_b body) hasie ie (IHi : GP_b ie) : GP_s (SFor x e body hasie ie).
Proof.
  intros f st text env env' Hf Hg Hn Ha Hc E. apply sout_for_inv in E as (lid & l & _ & Ev & Hsm & -> & Hout).
  rewrite sdepth_for in Hf. destruct f as [|F]; [lia|]. rewrite snode_for. apply bres_sres; auto.
  assert (Hd : (cfuel + bdepth body < F /\ cfuel + bdepth ie < F /\ cdepth e < F)%nat) by lia. destruct Hd as (Hdb & Hdi & Hde).
  apply (go_for_walk x (cnode e) body hasie ie IHb IHi F st l text env Hdb Hdi Hg Hn Ha Hc); auto.
  - intros st1 P1. exists lid. exact (go_eval F e st1 (VList lid l) env (agrees_pres _ _ _ P1 Ha) Hc Hde Ev).
  - exact (go_core st env e _ Ha Hc Ev).
Qed.

Lemma go_forrange x a1 rest body (IHb : GP_b body) hasie ie (IHi : GP_b ie) : GP_s (SForRange x a1 rest body hasie ie).
Proof.
  intros f st text env env' Hf Hg Hn Ha Hc E.
  apply sout_forrange_inv in E as (zs & a & l & stp & _ & Hci & Hr & Hst & Hsd & -> & Hout).
  rewrite sdepth_forrange in Hf. destruct f as [|[|F]]; try lia. rewrite snode_forrange. apply bres_sres; auto.
  assert (Hd : (cfuel + bdepth body < S F /\ cfuel + bdepth ie < S F /\ cdepth a1 < F /\ cdepths rest < F)%nat) by lia.
  destruct Hd as (Hdb & Hdi & Hd1 & Hdr).
  assert (Hdep : forall y, In y (a1 :: rest) -> (cdepth y < F)%nat).
  { intros y [<-|Hy]; [exact Hd1|]. pose proof (cdepths_le y rest Hy). lia. }
  destruct (go_range_eval st F env a1 rest zs a l stp Ha Hc Hci Hr Hst Hdep) as (Ssa & Ssl & Hev).
  destruct (range_items_facts a l stp Hst Ssa Ssl Hsd) as (Hlen & Hscnt & Hcl & _).
  set (items := range_items (Z.to_nat (Z.max 0 (l - a))) a l stp) in *.
  apply (go_for_walk x _ body hasie ie IHb IHi (S F) st items text env Hdb Hdi Hg Hn Ha Hc); auto.
  - intros st1 P1. apply Hev. exact (agrees_pres _ _ _ P1 Ha).
  - rewrite Hlen. exact Hscnt.
Qed.

Lemma go_css e sfx : GP_s (SCss e sfx).
Proof.
  intros f st text env env' Hf Hg Hn Ha Hc E. rewrite sout_css in E. rewrite sdepth_css in Hf. destruct f as [|F]; [lia|].
  assert (Hmain : env' = env /\ bres (walk cf (S F) (snode (SCss e sfx))) st text); [|destruct Hmain as (-> & H); apply bres_sres; auto].
  rewrite snode_css. pose proof (pres_set_cur st (pos_of (NCss 0 (match e with Some x => Some (cnode x) | None => None end) sfx))) as P1.
  destruct e as [x|].
  - apply some_bind in E as (v & Ev & E). apply some_bind in E as (str & Es & E). injection E as <- <-. split; [reflexivity|].
    destruct (scalar_string_ok v str Es) as (_ & Hvs & _).
    destruct (go_eval F x _ v env (agrees_pres _ _ _ P1 Ha) Hc ltac:(lia) Ev) as (st2 & E2 & P2).
    apply bres_walk. cbn [walk_node]. unfold bres0, mbind at 1 2. rewrite E2. unfold mbind at 1. rewrite Hvs. cbn [lift ret]. change s_dash with [45].
    exact (bres0_write st st2 _ (pres_trans _ _ _ P1 P2) Hg).
  - injection E as <- <-. split; [reflexivity|]. apply bres_walk. cbn [walk_node]. unfold bres0, mbind at 1. cbn [ret app].
    exact (bres0_write st _ sfx P1 Hg).
Qed.

Lemma go_call name d ps : GP_p ps -> GP_s (SCall name d ps).
Proof.
  intros IHp f st text env env' Hf Hg Hn Ha Hc E. rewrite sout_call in E.
  apply some_bind in E as (base & Ed & E). apply some_bind in E as (cenv & Ep & E). apply some_with in E as [Ec ->].
  destruct (Hfind name cenv text Ec) as (tm & Eft & Hrun).
  rewrite sdepth_call in Hf. destruct f as [|F]; [lia|]. apply bres_sres; auto. apply bres_walk. rewrite snode_call. cbn [walk_node]. rewrite Eft.
  pose proof (pres_set_cur st (pos_of (NCall 0 name (cdata_all d) (cdata_node d) (pnodes ps)))) as P1.
  destruct (go_call_data F d _ env base (agrees_pres _ _ _ P1 Ha) Hc ltac:(lia) Ed) as (cd & st2 & E2 & P2 & Ncd & Lcd & Hbase).
  pose proof (pres_trans _ _ _ P1 P2) as P12.
  destruct (IHp F st2 cd base cenv env ltac:(lia) (agrees_pres _ _ _ P12 Ha) Hc) as (cd' & st3 & E3 & P3 & Ncd' & Lcd' & Hcenv); auto.
  { rewrite (proj1 (proj2 P12)). exact Ep. }
  assert (P4 : pres st (set_cur st3 0)) by (eapply pres_trans; [exact (pres_trans _ _ _ P12 P3)|apply pres_set_cur]).
  destruct (Hrun F _ cd' ltac:(lia) (wsame_wok _ _ (pres_wsame _ _ P4) Hg) Ncd' Lcd' Hcenv) as (st5 & ws & rv & E5 & W5 & C5 & M5 & X5).
  unfold bres0, mbind. rewrite E2, E3. cbn [modify].
  exists st5, ws, rv. split; [exact E5|]. split; [exact (wrote_l _ _ _ _ (pres_wsame _ _ P4) W5)|]. split; [exact C5|].
  destruct P4 as (C4 & M4 & _). split; congruence.
Qed.

(* the depth of the plural's value and of its bodies, apart (less than sdepth asks) *)
Lemma go_msgpl pn v q : GP_q q -> forall F st text env env', (cdepth v < F)%nat -> (cfuel + S (qdepth q) < F)%nat ->
  wok st -> ctx st <> [] -> agrees st env -> envok env ->
  sout (c_ij cf) (mode st) go_print_text denv callee env (SMsgPl pn v q) = Some (text, env') ->
  sres (walk cf (S F) (snode (SMsgPl pn v q))) st text env'.
Proof.
  intros IHq F st text env env' Hdv Hdq Hg Hn Ha Hc E. rewrite sout_msgpl in E.
  apply some_bind in E as (sv & Ev & E). destruct sv as [| | |i| | | |]; try discriminate E. apply some_with in E as [Et ->].
  pose proof (pres_set_cur st (pos_of (snode (SMsgPl pn v q)))) as P1.
  destruct (go_eval F v _ (VInt i) env (agrees_pres _ _ _ P1 Ha) Hc Hdv Ev) as (st2 & E2 & P2).
  pose proof (pres_trans _ _ _ P1 P2) as P12. destruct (pres_ok _ _ _ P12 Hg Ha) as (Hg2 & Ha2 & M12).
  destruct (IHq F st2 text env i Hdq Hg2 (eq_ind_r (fun c => c <> []) Hn (proj1 P12)) Ha2 Hc)
    as (st3 & ws & E3 & W3 & T3 & M3 & N3 & Tl3 & A3). { rewrite M12. exact Et. }
  exists st3, ws, VUndef. rewrite walk_unfold, snode_msgpl. cbn [walk_node msg_body].
  split. { eapply go_mbind_ok; [|reflexivity]. eapply go_mbind_ok; [exact E2|]. cbn iota. eapply go_mbind_ok; [exact E3|reflexivity]. }
  split; [exact (wrote_l _ _ _ _ (pres_wsame _ _ P12) W3)|]. split; [exact T3|].
  destruct P12 as (C12 & _). split; [congruence|]. split; [exact N3|]. split; [congruence|exact A3].
Qed.

Lemma go_bcons s (IHs : GP_s s) r (IHr : GP_b r) : GP_b (BCons s r).
Proof.
  intros f st text env Hf Hg Hn Ha Hc E. rewrite bout_cons in E. rewrite bdepth_cons in Hf.
  apply some_bind in E as ([a env1] & Ea & E). apply some_bind in E as (c0 & Er & E). inversion E; subst. clear E.
  destruct (IHs f st a env env1 ltac:(lia) Hg Hn Ha Hc Ea) as (st1 & ws1 & rv & E1 & W1 & C1 & M1 & N1 & T1 & A1).
  rewrite bnodes_cons. cbn [walk_list]. unfold mbind at 1. rewrite E1.
  destruct (IHr f st1 c0 env1 ltac:(lia) (wrote_wok _ _ _ W1 Hg) N1 A1 (go_envok st _ env s a env1 Ha Hc Ea)) as (st2 & ws2 & E2 & W2 & C2 & M2 & T2 & Am2).
  { rewrite M1. exact Er. }
  exists st2, (ws1 ++ ws2). split; [exact E2|]. split; [exact (wrote_trans _ _ _ _ _ W1 W2)|].
  split; [rewrite concat_b_app; congruence|]. split; [congruence|]. split; [congruence|].
  (* raw text, print and call bind nothing *)
  intro Hm. cbn [msg_ok] in Hm. apply andb_prop in Hm as [Hs Hr].
  replace env with env1; [exact (Am2 Hr)|]. apply sout_env in Ea. destruct s; try discriminate Hs; exact Ea.
Qed.

Lemma go_elif c th (IHt : GP_b th) rest (IHr : GP_e rest) : GP_e (EElif c th rest).
Proof.
  intros F st text env Hf Hg Ha Hc E. rewrite eout_elif in E. rewrite edepth_elif in Hf. apply some_bind in E as (v & Ev & E).
  rewrite enodes_elif. cbn [if_conds].
  apply (bres0_eval F c _ st st text env v (pres_refl _) Ha Hc ltac:(lia) Ev). intros st2 P.
  apply (go_branch (truthy v) th IHt F env st st2 text); auto; try lia; destruct (truthy v); try discriminate; auto.
  intros _ st3 Hg3 Ha3 M3. apply (IHr F st3 text env); auto; [lia|]. rewrite M3. exact E.
Qed.

Lemma go_kcase v vs b (IHb : GP_b b) rest (IHr : GP_k rest) : GP_k (KCase v vs b rest).
Proof.
  intros F st text env sv Hf Hg Ha Hc E. rewrite kout_case in E. rewrite kdepth_case in Hf.
  destruct (khit (c_ij cf) env sv (v :: vs)) as [h|] eqn:Eh; [|discriminate].
  rewrite knodes_case. cbn [switch_cases]. change (cnode v :: map cnode vs) with (map cnode (v :: vs)).
  destruct (go_case_hit F env sv (v :: vs) Hc) with (st := st) (h := h) as (st2 & E2 & P); auto.
  { intros x [<-|Hx]; [lia|]. pose proof (cdepths_le x vs Hx). lia. }
  unfold bres0, mbind at 1. rewrite E2. cbn [map]. rewrite orb_false_r.
  apply (go_branch h b IHb F env st st2 text); auto; try lia; destruct h; try discriminate; auto.
  intros _ st3 Hg3 Ha3 M3. apply (IHr F st3 text env sv); auto; [lia|]. rewrite M3. exact E.
Qed.

Lemma go_pval k e r : GP_p r -> GP_p (PVal k e r).
Proof.
  intros IHr F st cd base cenv env Hf Ha Hc E Hn Hl Hb. rewrite pout_val in E. rewrite pdepth_val in Hf. rewrite pnodes_val. cbn [call_params].
  apply some_if in E as [_ E]. apply some_bind in E as (v & Ev & E).
  destruct (go_eval F e st v env Ha Hc ltac:(lia) Ev) as (st2 & E2 & P2). unfold mbind at 1. rewrite E2.
  destruct (IHr F st2 (sc_set cd k v) (env_set base k v) cenv env ltac:(lia) (agrees_pres _ _ _ P2 Ha) Hc) as (cd' & st3 & E3 & P3 & R).
  - rewrite (proj1 (proj2 P2)). exact E.
  - destruct cd; [congruence|discriminate].
  - intro q. rewrite sc_lookup_set by exact Hn. unfold env_set. rewrite Hl. reflexivity.
  - apply envok_set; [exact Hb|exact (go_core st env e v Ha Hc Ev)].
  - exists cd', st3. split; [exact E3|]. split; [eapply pres_trans; eauto|exact R].
Qed.

Lemma go_pcont k body (IHb : GP_b body) r (IHr : GP_p r) : GP_p (PCont k body r).
Proof.
  intros F st cd base cenv env Hf Ha Hc E Hn Hl Hb. rewrite pout_cont in E. rewrite pdepth_cont in Hf. rewrite pnodes_cont. cbn [call_params].
  apply some_if in E as [_ E]. apply some_bind in E as (t & Et & E).
  destruct (go_render_block body F st t env IHb ltac:(lia) Ha Hc Et) as (st2 & E2 & S2 & C2 & M2). unfold mbind at 1. rewrite E2.
  assert (P2 : pres st st2) by (destruct S2 as (O2 & B2 & L2 & Y2); repeat split; assumption).
  destruct (IHr F st2 (sc_set cd k (VStr t)) (env_set base k (VStr t)) cenv env ltac:(lia) (agrees_ctx _ _ _ C2 Ha) Hc) as (cd' & st3 & E3 & P3 & R).
  - rewrite M2. exact E.
  - destruct cd; [congruence|discriminate].
  - intro q. rewrite sc_lookup_set by exact Hn. unfold env_set. rewrite Hl. reflexivity.
  - apply envok_set; [exact Hb|reflexivity].
  - exists cd', st3. split; [exact E3|]. split; [eapply pres_trans; eauto|exact R].
Qed.

Theorem interp_all : (forall s, GP_s s) /\ (forall b, GP_b b) /\ (forall e, GP_e e) /\ (forall k, GP_k k) /\ (forall ps, GP_p ps) /\ (forall q, GP_q q).
Proof.
  apply cstmt_mutind.
  - exact go_raw.
  - exact go_print.
  - exact go_let.
  - exact go_letc.
  - exact go_if.
  - exact go_switch.
  - exact go_foreach.
  - exact go_forrange.
  - exact go_css.
  - exact go_call.
  - exact go_msg_stmt.
  - intros pn v q IHq f st text env env' Hf. rewrite sdepth_msgpl in Hf. destruct f as [|F]; [lia|]. apply go_msgpl; [exact IHq|lia|lia].
  - intros f st text env Hf Hg Hn Ha Hc E. rewrite bout_nil in E. inversion E; subst. exists st, [].
    split; [reflexivity|]. split; [apply wsame_wrote, wsame_refl|auto].
  - exact go_bcons.
  - intros F st text env Hf Hg Ha Hc E. rewrite eout_none in E. inversion E; subst. exists st, [], VUndef.
    split; [reflexivity|]. split; [apply wsame_wrote, wsame_refl|auto].
  - intros b IHb F st text env Hf Hg Ha Hc E. rewrite eout_else in E. rewrite edepth_else in Hf.
    rewrite enodes_else. cbn [if_conds]. apply bres0_ret. apply (go_block b F st text env); auto.
  - exact go_elif.
  - intros F st text env sv Hf Hg Ha Hc E. rewrite kout_none in E. inversion E; subst. exists st, [], VUndef.
    split; [reflexivity|]. split; [apply wsame_wrote, wsame_refl|auto].
  - intros b IHb F st text env sv Hf Hg Ha Hc E. rewrite kout_default in E. rewrite kdepth_default in Hf.
    rewrite knodes_default. cbn [switch_cases case_hit]. unfold mbind at 1. cbn [ret orb]. apply bres0_ret. apply (go_block b F st text env); auto.
  - exact go_kcase.
  - intros F st cd base cenv env Hf Ha Hc E Hn Hl Hb. rewrite pout_nil in E. inversion E; subst.
    exists cd, st. split; [reflexivity|]. split; [apply pres_refl|auto].
  - exact go_pval.
  - exact go_pcont.
  - intros b IHb F st text env i Hf Hg Hn Ha Hc E. rewrite qout_dflt in E. rewrite qdepth_dflt in Hf.
    rewrite qcnodes_dflt, qdnodes_dflt. cbn [plural_pick].
    exact (go_plural_body b F st text env IHb Hf Hg Hn Ha Hc E).
  - intros z b IHb r IHr F st text env i Hf Hg Hn Ha Hc E. rewrite qout_case in E. rewrite qdepth_case in Hf.
    rewrite qcnodes_case, qdnodes_case. cbn [plural_pick].
    destruct (i =? z)%Z.
    + exact (go_plural_body b F st text env IHb ltac:(lia) Hg Hn Ha Hc E).
    + exact (IHr F st text env i ltac:(lia) Hg Hn Ha Hc E).
Qed.
End GoStmts.
