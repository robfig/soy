(* C10: what the message id itself determines.

   calcID is not injective in the fingerprinted string (a 63-bit value cannot be), but it is
   as injective as its shape allows: it is a bijective re-arrangement of the two 32-bit words
   hash32(str, seed_hi) and hash32(str, seed_lo) followed by the loss of exactly ONE bit.
   Hence two contents (with one meaning) share an id only if those two hashes collide on the
   other 63 bits; and two meanings give one content the same id only if the meanings'
   fingerprints collide on 63 bits.  Everything here is arithmetic on Model/MsgId.v's
   fingerprint / calc_id, for all strings. *)
From Coq Require Import NArith ZArith Lia List Bool ZifyBool.
From Soy Require Import Model.Bytes Model.Outcome Generated.Tables Model.MsgId.
Import ListNotations.
Open Scope N_scope.

(* a word h * b + l of two halves, over an arbitrary base b *)
Lemma pair_lt (h l b : N) : h < b -> l < b -> h * b + l < b * b.
Proof. nia. Qed.
Lemma div_pair (h l b : N) : l < b -> (h * b + l) / b = h.
Proof. intro H. assert (b <> 0) by lia. rewrite N.div_add_l, N.div_small by assumption. apply N.add_0_r. Qed.
Lemma mod_pair (h l b : N) : l < b -> (h * b + l) mod b = l.
Proof. intro H. assert (b <> 0) by lia. rewrite N.add_comm, N.mod_add by assumption. apply N.mod_small, H. Qed.

Lemma pair_inj (h l h' l' b : N) : l < b -> l' < b -> h * b + l = h' * b + l' -> h = h' /\ l = l'.
Proof.
  intros Hl Hl' E. split.
  - rewrite <- (div_pair h l b Hl), E. apply div_pair, Hl'.
  - rewrite <- (mod_pair h l b Hl), E. apply mod_pair, Hl'.
Qed.

Lemma mod_mul_mod (a b c : N) : b <> 0 -> c <> 0 -> (a mod (b * c)) mod b = a mod b.
Proof.
  intros Hb Hc. rewrite N.mod_mul_r by assumption.
  rewrite N.mul_comm, N.mod_add by assumption. apply N.mod_mod, Hb.
Qed.

(* reducing modulo q * b keeps the low half and reduces the high half modulo q *)
Lemma pair_mod_eq (q b h l h' l' : N) : q <> 0 -> l < b -> l' < b ->
  (h * b + l) mod (q * b) = (h' * b + l') mod (q * b) -> l = l' /\ h mod q = h' mod q.
Proof.
  intros Hq Hl Hl'.
  assert (R : forall h l, l < b -> (h * b + l) mod (q * b) = (h mod q) * b + l).
  { intros h0 l0 H0. assert (b <> 0) by lia.
    rewrite (N.mul_comm q b), N.mod_mul_r, div_pair, mod_pair by assumption. lia. }
  rewrite !R by assumption. intro E. apply pair_inj in E; tauto.
Qed.

Lemma add_mod_cancel_r (a b z m : N) : m <> 0 -> ((a + z) mod m = (b + z) mod m <-> a mod m = b mod m).
Proof.
  intro Hm. split; intro H.
  - (* add the complement of z *)
    assert (C : forall c, c mod m = ((c + z) mod m + (m - z mod m)) mod m).
    { intro c. rewrite N.add_mod_idemp_l, <- N.add_assoc by exact Hm.
      pose proof (N.mod_lt z m Hm). rewrite (N.div_mod z m Hm) at 1.
      replace (m * (z / m) + z mod m + (m - z mod m)) with ((z / m + 1) * m) by lia.
      symmetry. apply N.mod_add, Hm. }
    rewrite (C a), (C b), H. reflexivity.
  - rewrite <- (N.add_mod_idemp_l a), <- (N.add_mod_idemp_l b), H by exact Hm. reflexivity.
Qed.

(* A word x of four quarters t, rotated left by one bit and cut to two quarters, is x with its
   second-highest bit dropped: 2 * (x mod t) + top bit. *)
Lemma rot_mod (t x : N) : t <> 0 -> x < 4 * t ->
  ((2 * x) mod (4 * t) + x / (2 * t)) mod (2 * t) = 2 * (x mod t) + x / (2 * t).
Proof.
  intros Ht Hx. assert (Ht2 : 2 * t <> 0) by lia.
  assert (Hb : x / (2 * t) < 2) by (apply N.div_lt_upper_bound; lia).
  replace (4 * t) with (2 * (2 * t)) by lia. rewrite N.mul_mod_distr_l by (exact Ht2 || discriminate).
  rewrite <- (mod_mul_mod x t 2), (N.mul_comm t 2) by (exact Ht || discriminate).
  revert Hb. generalize (x / (2 * t)) (x mod (2 * t)). clear x Hx. intros b l Hb.
  (* l = t * c + u with u < t *)
  pose proof (N.mod_lt l t Ht) as Hu. rewrite (N.div_mod l t Ht) at 1.
  revert Hu. generalize (l mod t) (l / t). clear l. intros u c Hu.
  replace (2 * (t * c + u) + b) with (2 * u + b + c * (2 * t)) by lia.
  rewrite N.mod_add by exact Ht2. apply N.mod_small. lia.
Qed.

Lemma rot_add_mod_eq_iff (t x y z : N) : t <> 0 -> x < 4 * t -> y < 4 * t ->
  (((2 * x) mod (4 * t) + x / (2 * t) + z) mod (2 * t) = ((2 * y) mod (4 * t) + y / (2 * t) + z) mod (2 * t) <->
   x mod t = y mod t /\ x / (2 * t) = y / (2 * t)).
Proof.
  intros Ht Hx Hy. rewrite add_mod_cancel_r, !rot_mod by lia.
  assert (Hb : x / (2 * t) < 2 /\ y / (2 * t) < 2) by (split; apply N.div_lt_upper_bound; lia).
  revert Hb. generalize (x / (2 * t)) (y / (2 * t)) (x mod t) (y mod t). lia.
Qed.

Lemma lor_high_low (a x n : N) : N.lor (a * 2 ^ n) (x mod 2 ^ n) = a * 2 ^ n + x mod 2 ^ n.
Proof.
  assert (H : N.land (a * 2 ^ n) (x mod 2 ^ n) = 0).
  { apply N.bits_inj. intro k. rewrite N.land_spec, N.bits_0.
    destruct (N.lt_ge_cases k n) as [Hk|Hk].
    - rewrite N.mul_pow2_bits_low by exact Hk. reflexivity.
    - rewrite N.mod_pow2_bits_high by exact Hk. apply andb_false_r. }
  rewrite <- N.lxor_lor by exact H. symmetry. apply N.add_nocarry_lxor. exact H.
Qed.

Lemma land_pow2 (a n : N) : N.land a (2 ^ n) = if N.testbit a n then 2 ^ n else 0.
Proof.
  apply N.bits_inj. intro k. rewrite N.land_spec, N.pow2_bits_eqb.
  destruct (N.eqb_spec n k) as [->|Hne].
  - destruct (N.testbit a k); [rewrite N.pow2_bits_true; reflexivity | rewrite N.bits_0; reflexivity].
  - rewrite andb_false_r. destruct (N.testbit a n); [|rewrite N.bits_0; reflexivity].
    rewrite N.pow2_bits_false by exact Hne. reflexivity.
Qed.

Lemma testbit_top (a n : N) : a < 2 ^ (n + 1) -> N.b2n (N.testbit a n) = a / 2 ^ n.
Proof.
  intro H. rewrite N.testbit_spec'. apply N.mod_small.
  apply N.div_lt_upper_bound; [apply N.pow_nonzero; discriminate|].
  rewrite N.pow_add_r, N.pow_1_r in H. lia.
Qed.

Definition raw_pair (s : bstr) : N * N := (hash32 s fp_seed_hi, hash32 s fp_seed_lo).

(* "Turn 0/1 into another fingerprint" *)
Definition degenerate (p : N * N) : bool := (fst p =? 0) && ((snd p =? 0) || (snd p =? 1)).
Definition adjust (p : N * N) : N * N :=
  if degenerate p then (N.lxor (fst p) fp_xor_hi, N.lxor (snd p) fp_xor_lo) else p.

Definition fp_pair (s : bstr) : N * N := adjust (raw_pair s).

Definition two32 : N := 4294967296.
Definition two62 : N := 4611686018427387904.
Definition two63 : N := 9223372036854775808.
Definition two64 : N := 18446744073709551616.

Lemma fingerprint_pair (s : bstr) :
  fingerprint s = (fst (fp_pair s) mod two32) * two32 + snd (fp_pair s) mod two32.
Proof.
  unfold fingerprint, fp_pair, adjust, degenerate, raw_pair. cbn [fst snd].
  set (hi := hash32 s fp_seed_hi). set (lo := hash32 s fp_seed_lo). cbv zeta.
  assert (C : forall h l, N.lor (w64 (N.shiftl h 32)) (N.land l 4294967295) = (h mod two32) * two32 + l mod two32).
  { intros h l. unfold w64. rewrite N.shiftl_mul_pow2.
    change 4294967295 with (N.ones 32). rewrite N.land_ones.
    change 18446744073709551616 with (2 ^ 32 * 2 ^ 32). rewrite N.mul_mod_distr_r by discriminate.
    change two32 with (2 ^ 32). apply lor_high_low. }
  destruct ((hi =? 0) && ((lo =? 0) || (lo =? 1))); cbn [fst snd]; apply C.
Qed.

Lemma fingerprint_lt (s : bstr) : fingerprint s < two64.
Proof. rewrite fingerprint_pair. apply (pair_lt _ _ two32); apply N.mod_lt; discriminate. Qed.

Lemma fingerprint_hi (s : bstr) : fingerprint s / two32 = fst (fp_pair s) mod two32.
Proof. rewrite fingerprint_pair. apply div_pair, N.mod_lt. discriminate. Qed.
Lemma fingerprint_lo (s : bstr) : fingerprint s mod two32 = snd (fp_pair s) mod two32.
Proof. rewrite fingerprint_pair. apply mod_pair, N.mod_lt. discriminate. Qed.

Theorem fingerprint_eq_iff (s s' : bstr) :
  fingerprint s = fingerprint s' <->
  fst (fp_pair s) mod two32 = fst (fp_pair s') mod two32 /\ snd (fp_pair s) mod two32 = snd (fp_pair s') mod two32.
Proof.
  split.
  - intro H. rewrite <- !fingerprint_hi, <- !fingerprint_lo, H. split; reflexivity.
  - intros [H1 H2]. rewrite !fingerprint_pair, H1, H2. reflexivity.
Qed.

Theorem adjust_inj (p q : N * N) : adjust p = adjust q -> p = q \/ degenerate p = true \/ degenerate q = true.
Proof.
  unfold adjust. destruct (degenerate p); [right; left; reflexivity|].
  destruct (degenerate q); [right; right; reflexivity|]. left. assumption.
Qed.

(* hash32 is a 32-bit word, so the "mod 2^32" of fingerprint_pair lose nothing *)
Lemma lxor_lt32 (x y : N) : x < two32 -> y < two32 -> N.lxor x y < two32.
Proof.
  intros Hx Hy. change two32 with (2 ^ 32) in *.
  destruct (N.eq_dec (N.lxor x y) 0) as [->|Hne]; [reflexivity|].
  apply N.log2_lt_pow2; [lia|].
  eapply N.le_lt_trans; [apply N.log2_lxor|].
  apply N.max_lub_lt.
  - destruct (N.eq_dec x 0) as [->|Hx0]; [reflexivity|]. apply N.log2_lt_pow2; lia.
  - destruct (N.eq_dec y 0) as [->|Hy0]; [reflexivity|]. apply N.log2_lt_pow2; lia.
Qed.
Lemma sub32_lt (x y : N) : sub32 x y < two32.
Proof. unfold sub32, two32. apply N.mod_lt. discriminate. Qed.
Lemma shl32_lt (x k : N) : shl32 x k < two32.
Proof. unfold shl32, two32. apply N.mod_lt. discriminate. Qed.
Lemma shiftr_lt32 (x k : N) : x < two32 -> N.shiftr x k < two32.
Proof.
  intro H. rewrite N.shiftr_div_pow2. eapply N.le_lt_trans; [|exact H].
  apply N.div_le_upper_bound; [apply N.pow_nonzero; discriminate|].
  assert (2 ^ k <> 0) by (apply N.pow_nonzero; discriminate). nia.
Qed.

(* Walk down a block of assignments `let x := e in ..` over 32-bit words: name e, bound it where its operands
   allow, and only then put the name for x.  Expanding the lets as they stand makes the last word of the mix
   block a term of thousands of nodes. *)
Ltac word_lt := first [ assumption | apply sub32_lt | apply shl32_lt | apply lxor_lt32; word_lt | apply shiftr_lt32; word_lt ].
Ltac words_step :=
  lazymatch goal with
  | |- context C [let x := ?e in @?B x] =>
      let w := fresh "w" in
      set (w := e); try assert (w < two32) by (subst w; word_lt); clearbody w;
      let t := eval cbv beta in (B w) in let g := context C [t] in change g
  end.

(* whatever assignments the regenerated mix block consists of: every word stays below 2^32 *)
Lemma mix_lt32 (a b0 c : N) : a < two32 -> b0 < two32 -> c < two32 ->
  let '(a', b', c') := mix a b0 c in a' < two32 /\ b' < two32 /\ c' < two32.
Proof. intros Ha Hb Hc. cbv beta delta [mix]. repeat words_step. repeat split; assumption. Qed.

Lemma hash32_lt (s : bstr) (seed : N) : hash32 s seed < two32.
Proof.
  unfold hash32.
  destruct (h32_blocks s (h32_init_a, h32_init_b, w32 seed)) as [rest st].
  destruct (h32_add 2 (w32 (N.of_nat (length s))) st) as [[a1 b1] c1].
  destruct (h32_loads rest _ (a1, b1, c1)) as [[a2 b2] c2].
  (* a2 b2 c2 have no bound here; from the second assignment to b on, every word has one: subtractions and left
     shifts wrap, and the right shifts are of words bounded before *)
  cbv beta delta [mix]. repeat words_step. assumption.
Qed.

Lemma raw_pair_lt (s : bstr) : fst (raw_pair s) < two32 /\ snd (raw_pair s) < two32.
Proof. split; apply hash32_lt. Qed.

Lemma fp_pair_lt (s : bstr) : fst (fp_pair s) < two32 /\ snd (fp_pair s) < two32.
Proof.
  unfold fp_pair, adjust. destruct (raw_pair_lt s) as [H1 H2].
  destruct (degenerate (raw_pair s)); cbn [fst snd]; [|split; assumption].
  split; apply lxor_lt32; try assumption; reflexivity.
Qed.

Theorem fingerprint_eq_iff_pair (s s' : bstr) : fingerprint s = fingerprint s' <-> fp_pair s = fp_pair s'.
Proof.
  rewrite fingerprint_eq_iff.
  destruct (fp_pair_lt s) as [H1 H2]. destruct (fp_pair_lt s') as [H3 H4].
  rewrite !N.mod_small by assumption.
  destruct (fp_pair s), (fp_pair s'); cbn [fst snd]. split; [intros [-> ->]; reflexivity|intro H; inversion H; auto].
Qed.

(* rotate a 64-bit word left by one: (fp << 1) + topbit *)
Definition rot1 (fp : N) : N := (2 * fp) mod two64 + fp / two63.

Theorem calc_id_no_meaning (s : bstr) : calc_id s [] = fingerprint s mod two63.
Proof.
  unfold calc_id. cbv zeta. change calc_id_mask with (N.ones 63). rewrite N.land_ones. reflexivity.
Qed.

Theorem calc_id_meaning (s m : bstr) : m <> [] -> calc_id s m = (rot1 (fingerprint s) + fingerprint m) mod two63.
Proof.
  intro Hm. unfold calc_id. cbv zeta. destruct m as [|c r]; [congruence|].
  change calc_id_mask with (N.ones 63). rewrite N.land_ones.
  pose proof (fingerprint_lt s) as Hlt. set (fp := fingerprint s) in *. set (fm := fingerprint (c :: r)).
  change 9223372036854775808 with (2 ^ 63). rewrite land_pow2.
  assert (Ht : (if 0 <? (if N.testbit fp 63 then 2 ^ 63 else 0) then 1 else 0) = fp / two63).
  { change two63 with (2 ^ 63). rewrite <- (testbit_top fp 63) by exact Hlt. destruct (N.testbit fp 63); reflexivity. }
  rewrite Ht. unfold w64, rot1. rewrite N.shiftl_mul_pow2, N.pow_1_r, (N.mul_comm fp 2).
  change (2 ^ 63) with two63. change 18446744073709551616 with (two63 * 2) at 2.
  apply mod_mul_mod; discriminate.
Qed.

(* no meaning: the id is the fingerprint without its top bit *)
Theorem same_id_no_meaning_iff (s s' : bstr) :
  calc_id s [] = calc_id s' [] <-> fingerprint s mod two63 = fingerprint s' mod two63.
Proof. rewrite !calc_id_no_meaning. reflexivity. Qed.

(* one meaning: the id determines the fingerprint of the content up to bit 62 *)
Theorem same_id_same_meaning_iff (s s' m : bstr) : m <> [] ->
  (calc_id s m = calc_id s' m <->
   fingerprint s mod two62 = fingerprint s' mod two62 /\ fingerprint s / two63 = fingerprint s' / two63).
Proof.
  intro Hm. rewrite !calc_id_meaning by exact Hm.
  apply (rot_add_mod_eq_iff two62); [discriminate | apply fingerprint_lt ..].
Qed.

(* one content, two meanings: the ids agree iff the meanings' fingerprints agree up to the top bit *)
Theorem same_id_two_meanings_iff (s m m' : bstr) : m <> [] -> m' <> [] ->
  (calc_id s m = calc_id s m' <-> fingerprint m mod two63 = fingerprint m' mod two63).
Proof.
  intros Hm Hm'. rewrite !calc_id_meaning by assumption.
  rewrite !(N.add_comm (rot1 _)). apply add_mod_cancel_r. discriminate.
Qed.

(* the two hash words agree except possibly in bits 30 and 31 of the high word *)
Definition agree62 (p q : N * N) : Prop := snd p = snd q /\ fst p mod 1073741824 = fst q mod 1073741824.

Theorem same_id_only_by_collision (s s' m : bstr) :
  calc_id s m = calc_id s' m -> agree62 (fp_pair s) (fp_pair s').
Proof.
  intro H.
  (* with or without a meaning, the fingerprints agree on their low 62 bits *)
  assert (E : fingerprint s mod two62 = fingerprint s' mod two62).
  { destruct m as [|c r].
    - apply same_id_no_meaning_iff, (f_equal (fun x => x mod two62)) in H.
      change two63 with (two62 * 2) in H. rewrite !mod_mul_mod in H by discriminate. exact H.
    - apply same_id_same_meaning_iff in H; [apply H | discriminate]. }
  destruct (fp_pair_lt s) as [H1 H2]. destruct (fp_pair_lt s') as [H3 H4].
  rewrite !fingerprint_pair, !(N.mod_small _ two32) in E by assumption.
  apply (pair_mod_eq 1073741824 two32); [discriminate | assumption ..].
Qed.

(* contrapositive, the form the property's text has: a change of content that changes 62 designated
   bits of the two hashes changes the id *)
Theorem id_changes_unless_collision (s s' m : bstr) :
  ~ agree62 (fp_pair s) (fp_pair s') -> calc_id s m <> calc_id s' m.
Proof. intros H E. apply H. exact (same_id_only_by_collision s s' m E). Qed.

Theorem msg_same_id_only_by_collision (order : list bstr -> list bstr) (m m' : msg) named named' :
  msg_named order (m_body m) = Ok named -> msg_named order (m_body m') = Ok named' ->
  m_meaning m = m_meaning m' -> msg_id order m = msg_id order m' ->
  agree62 (fp_pair (write_fp_list false named)) (fp_pair (write_fp_list false named')).
Proof.
  intros Hn Hn' Hm H. unfold msg_id in H. rewrite Hn, Hn' in H. cbn in H. inversion H as [E].
  rewrite Hm in E. exact (same_id_only_by_collision _ _ _ E).
Qed.
