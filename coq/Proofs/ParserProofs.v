(* The theorems about the parser models (Model/Parser.v over Model/ExprParser.v):
     parse_file_total / parse_expr_total   every stream of well-formed items gives a tree or an
                                           error within the stated budget: never PFuel, never a
                                           run-time panic (PCrash)
     parse_linear                          at most |items| + 4 channel receives
     scanner_fully_consumed_or_drained_file / _expr
                                           every scanner a parse starts is drained or fully read
   plus the witnesses about the pinned code (no drain in parse.Expr) and about the hypotheses. *)
From Soy Require Import Model.Bytes Model.Ast Model.Token Model.NumLit Model.ExprParser Model.Parser.
From Soy Require Import Generated.Tables Proofs.ParserMeasure Proofs.ExprTotal Proofs.ParserBase Proofs.ParserLeaf Proofs.ParserCmd.
From Coq Require Import ZifyBool Lia.
Open Scope N_scope.

(* items of lexExpr("", "1 2 3"): integer integer integer error("unclosed tag") *)
Definition toks_1_2_3 : list tok :=
  [ {| t_typ := pit_Integer; t_pos := 1; t_val := [49] |};
    {| t_typ := pit_Integer; t_pos := 3; t_val := [50] |};
    {| t_typ := pit_Integer; t_pos := 5; t_val := [51] |};
    {| t_typ := pit_Error; t_pos := 5; t_val := [] |} ].

(* the pinned parse.Expr returns after two receives and never drains: the scanner stays blocked *)
Lemma expr_pinned_leaks :
  map scan_done (po_scans (soy_expr_pinned 5 toks_1_2_3)) = [false]
  /\ map scan_done (po_scans (soy_expr 5 toks_1_2_3)) = [true].
Proof. vm_compute. split; reflexivity. Qed.

Definition is_tree_or_error {A} (r : presult A) : Prop :=
  match r with POk _ _ | PErr _ _ _ => True | PCrash _ | PFuel => False end.
Definition recv_of {A} (r : presult A) : nat :=
  match r with POk _ p | PErr _ _ p => p_recv p | _ => 0%nat end.

(* what the theorems assume of a scanner: its items are well-formed for an input of that length *)
Definition items_wf (inlen : N) (ts : list tok) : Prop := Forall (twf inlen) ts.
Definition lexq_wf (lexq : bstr -> list tok) : Prop :=
  forall str, items_wf (N.of_nat (length str)) (lexq str).

Section File.
Variable inlen : N.
Variable lexq : bstr -> list tok.
Variable unq : bstr -> option bstr.
Hypothesis Hlexq : lexq_wf lexq.

(* the state-level statement behind the three theorems *)
Lemma parse_file_post eofchk ts fuel :
  items_wf inlen ts -> (eofchk = true -> eof_last ts) -> (length ts + 2 <= fuel)%nat ->
  match item_list inlen lexq unq parse_expr expr_fuel fuel u_eof (cst_init ts) with
  | COk _ s => cinv inlen (length ts) eofchk s /\ (p_recv (c_p s) <= length ts + 2)%nat
               /\ (eofchk = true -> (length ts <= p_recv (c_p s))%nat)
  | CErr _ _ s => cinv inlen (length ts) eofchk s /\ (p_recv (c_p s) <= length ts + 4)%nat
  | CCrash _ => False
  | CFuel => False
  end.
Proof.
  intros Hw He Hf.
  assert (Hi : cinv inlen (length ts) eofchk (cst_init ts)).
  { split; cbn [c_p c_scans cst_init]; [apply pinv_init; auto|constructor]. }
  pose proof (mu_init ts) as Hm.
  assert (Hu : until_ok u_eof) by uok.
  pose proof (item_list_ok inlen (length ts) eofchk lexq unq Hlexq fuel u_eof (cst_init ts) _ Hu Hi eq_refl) as H.
  cbn [c_p cst_init] in H. specialize (H ltac:(lia)).
  destruct (item_list _ _ _ _ _ fuel u_eof (cst_init ts)) as [n s|t c s|m|]; cbn [cpost] in H; try contradiction.
  - destruct H as (Hi' & Hk & Hq). unfold wpost in Hq. cbn [c_p cst_init] in Hq. destruct Hq as (Q1 & Q2 & Q3).
    split; [auto|]. destruct Hi' as (Hp & Hs). pose proof (pi_peek _ _ _ _ Hp).
    split; [unfold kap, lpz in *; cbn [pst_init p_recv p_peek] in *; lia|].
    intros E. destruct (pi_eof _ _ _ _ Hp E) as (E0 & E1 & E2).
    assert (Hr : p_rest (c_p s) = []).
    { cbn [In] in Q3. destruct Q3 as [Q3|[]]. unfold cur_tok, tok_at in Q3.
      destruct (p_peek (c_p s)) as [|k]; [apply E1|apply E2]; auto. }
    pose proof (pi_cnt _ _ _ _ Hp) as Hc. rewrite Hr in Hc. cbn [length] in Hc. lia.
  - destruct H as (Hi' & Hl). split; [auto|]. destruct Hi' as (Hp & Hs). pose proof (pi_peek _ _ _ _ Hp).
    unfold kap, lpz in *; cbn [pst_init p_recv p_peek] in *; lia.
Qed.

(* C05, parser half: parse.SoyFile on any stream of well-formed items *)
Theorem parse_file_total ts fuel :
  items_wf inlen ts -> (length ts + 2 <= fuel)%nat ->
  is_tree_or_error (po_result (parse_file inlen lexq unq parse_expr expr_fuel fuel ts)).
Proof.
  intros Hw Hf. pose proof (parse_file_post false ts fuel Hw ltac:(discriminate) Hf) as H.
  unfold parse_file. destruct (item_list _ _ _ _ _ fuel u_eof (cst_init ts)); cbn; auto.
Qed.

Theorem soy_file_total ts :
  items_wf inlen ts -> is_tree_or_error (po_result (soy_file inlen lexq unq ts)).
Proof. intros Hw. apply parse_file_total; auto. unfold file_fuel. lia. Qed.

(* the number of channel receives is linear in the number of items *)
Theorem parse_linear ts fuel :
  items_wf inlen ts -> (length ts + 2 <= fuel)%nat ->
  (recv_of (po_result (parse_file inlen lexq unq parse_expr expr_fuel fuel ts)) <= length ts + 4)%nat
  /\ Forall (fun r => (sc_recv r <= sc_sent r + 4)%nat) (po_scans (parse_file inlen lexq unq parse_expr expr_fuel fuel ts)).
Proof.
  intros Hw Hf. pose proof (parse_file_post false ts fuel Hw ltac:(discriminate) Hf) as H.
  unfold parse_file. destruct (item_list _ _ _ _ _ fuel u_eof (cst_init ts)) as [n s|t c s|m|]; cbn [po_result po_scans recv_of]; try contradiction.
  - destruct H as ((Hp & Hs) & Hr & _). split; [lia|]. constructor; [cbn; lia|].
    apply Forall_rev. eapply Forall_impl; [|exact Hs]. intros r (A & B); auto.
  - destruct H as ((Hp & Hs) & Hr). split; [lia|]. constructor; [cbn; lia|].
    apply Forall_rev. eapply Forall_impl; [|exact Hs]. intros r (A & B); auto.
Qed.

(* C18 for parse.SoyFile: on success the parser stops at the EOF item, the scanner's last send;
   on an error recover drains; every nested scanner is drained by its deferred call *)
Theorem scanner_fully_consumed_or_drained_file ts fuel :
  items_wf inlen ts -> eof_last ts -> (length ts + 2 <= fuel)%nat ->
  let o := parse_file inlen lexq unq parse_expr expr_fuel fuel ts in
  is_tree_or_error (po_result o)
  /\ (exists own nested, po_scans o = own :: nested /\ sc_sent own = length ts)
  /\ Forall (fun r => scan_done r = true) (po_scans o).
Proof.
  intros Hw He Hf. pose proof (parse_file_post true ts fuel Hw (fun _ => He) Hf) as H.
  cbv zeta. unfold parse_file.
  destruct (item_list _ _ _ _ _ fuel u_eof (cst_init ts)) as [n s|t c s|m|]; cbn [po_result po_scans is_tree_or_error]; try contradiction.
  - destruct H as ((Hp & Hs) & Hr & Hall). specialize (Hall eq_refl).
    split; [exact I|]. split; [eexists; eexists; split; [reflexivity|reflexivity]|].
    constructor.
    + unfold scan_done, own_scan. cbn [sc_drained sc_sent sc_recv]. lia.
    + apply Forall_rev. eapply Forall_impl; [|exact Hs]. intros r (A & B). unfold scan_done. rewrite A. reflexivity.
  - destruct H as ((Hp & Hs) & Hr).
    split; [exact I|]. split; [eexists; eexists; split; [reflexivity|reflexivity]|].
    constructor; [reflexivity|].
    apply Forall_rev. eapply Forall_impl; [|exact Hs]. intros r (A & B). unfold scan_done. rewrite A. reflexivity.
Qed.
End File.

(* ---------- parse.Expr (and the per-line parse.Expr of soy.ParseGlobals) ---------- *)
Lemma parse_expr_entry_post drain inlen ts fuel :
  items_wf inlen ts -> (length ts < fuel)%nat ->
  let o := parse_expr_entry parse_expr drain inlen fuel ts in
  is_tree_or_error (po_result o) /\ (recv_of (po_result o) <= length ts + 4)%nat
  /\ (exists own, po_scans o = [own] /\ sc_sent own = length ts
                  /\ (drain = true -> sc_drained own = true)).
Proof.
  intros Hw Hf. cbv zeta.
  assert (Hi : pinv inlen 0 false (pst_init ts)) by (apply pinv_init; [auto|lia|discriminate]).
  pose proof (mu_init ts) as Hm.
  pose proof (parse_expr_ok inlen 0 false fuel 0 (pst_init ts) _ Hi eq_refl ltac:(lia)) as H.
  unfold parse_expr_entry.
  destruct (parse_expr fuel 0 (pst_init ts)) as [n p|t c p|m|]; cbn [ppost] in H; try contradiction.
  - destruct H as (A & B & C). pose proof (pi_peek _ _ _ _ A).
    cbn [po_result po_scans is_tree_or_error recv_of]. split; [exact I|].
    split; [unfold kap, lpz in *; cbn [pst_init p_recv p_peek] in *; lia|].
    eexists; split; [reflexivity|]. split; [reflexivity|]. intros E; subst; reflexivity.
  - destruct H as (A & B & C). pose proof (pi_peek _ _ _ _ A).
    pose proof (twf_pos _ _ C) as Hpos.
    destruct (N.leb_spec (t_pos t) inlen); [|lia].
    cbn [po_result po_scans is_tree_or_error recv_of]. split; [exact I|].
    split; [unfold kap, lpz in *; cbn [pst_init p_recv p_peek] in *; lia|].
    eexists; split; [reflexivity|]. split; [reflexivity|]. intros E; reflexivity.
Qed.

(* C05, parser half: parse.Expr *)
Theorem parse_expr_total inlen ts :
  items_wf inlen ts -> is_tree_or_error (po_result (soy_expr inlen ts)).
Proof.
  intros Hw. unfold soy_expr. apply (parse_expr_entry_post true inlen ts (expr_fuel ts) Hw). unfold expr_fuel; lia.
Qed.

Theorem parse_expr_linear inlen ts :
  items_wf inlen ts -> (recv_of (po_result (soy_expr inlen ts)) <= length ts + 4)%nat.
Proof.
  intros Hw. unfold soy_expr. apply (parse_expr_entry_post true inlen ts (expr_fuel ts) Hw). unfold expr_fuel; lia.
Qed.

(* C18 for parse.Expr after the repair (and so for every line of soy.ParseGlobals): drained on
   every return *)
Theorem scanner_fully_consumed_or_drained_expr inlen ts :
  items_wf inlen ts ->
  is_tree_or_error (po_result (soy_expr inlen ts))
  /\ (exists own, po_scans (soy_expr inlen ts) = [own] /\ sc_sent own = length ts)
  /\ Forall (fun r => scan_done r = true) (po_scans (soy_expr inlen ts)).
Proof.
  intros Hw. unfold soy_expr.
  destruct (parse_expr_entry_post true inlen ts (expr_fuel ts) Hw ltac:(unfold expr_fuel; lia)) as (A & B & (own & E1 & E2 & E3)).
  split; [auto|]. split; [eauto|]. rewrite E1. constructor; [|constructor].
  unfold scan_done. rewrite (E3 eq_refl). reflexivity.
Qed.

(* ---------- the hypotheses are needed, and satisfiable ---------- *)
(* an item the scanner never produces -- a $ident item with an empty text -- makes the Go code
   slice out of range in parseLet: a run-time panic, which recover re-panics *)
Definition toks_bad_let : list tok :=
  [ {| t_typ := pit_LeftDelim; t_pos := 1; t_val := [123] |};
    {| t_typ := pit_Let; t_pos := 4; t_val := [108; 101; 116] |};
    {| t_typ := pit_DollarIdent; t_pos := 5; t_val := [] |};
    {| t_typ := pit_Colon; t_pos := 6; t_val := [58] |};
    {| t_typ := pit_Integer; t_pos := 7; t_val := [49] |};
    {| t_typ := pit_RightDelimEnd; t_pos := 9; t_val := [47; 125] |};
    {| t_typ := pit_EOF; t_pos := 9; t_val := [] |} ].
Lemma ill_formed_item_crashes :
  exists m, po_result (soy_file 9 (fun _ => []) (fun _ => None) toks_bad_let) = PCrash m.
Proof. eexists. vm_compute. reflexivity. Qed.
