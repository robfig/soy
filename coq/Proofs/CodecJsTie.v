(* C16, JavaScript side: the helper models of Model/JsDirectives.v tied to soyjs/lib/soyutils.js BY
   TRANSLATION.  tablegen (go/cmd/tablegen/jsutils.go, generator 16-soyutils-js) reads, out of the text of
   soyutils.js, the escape maps and matcher classes of soy.$$escapeJsString and soy.$$escapeHtml, the class
   and the replacer of soy.$$escapeUri (and which function goog.string.urlEncode is bound to), the regex
   alternatives and the replacement of goog.string.newLineToBr, the bounds of the two surrogate predicates,
   goog.format.WORD_BREAK, and the code of soy.$$truncate and of the goog.format.insertWordBreaks shim as
   text; they arrive as Generated/Tables.v jsu_*.  The lemmas below equate them with the functions of
   Model/JsDirectives.v on EVERY code unit (those below 256 by computation, the others by deciding the
   comparisons with the few larger literals) resp. on every code-unit string; a change of a table entry, of
   a class, of the regex or of the code of the two functions in soyutils.js is a broken proof obligation of
   C16.

   What the lemmas do NOT say: String.prototype.replace with a global regex and a function, charCodeAt,
   substring, encodeURIComponent are ECMAScript's; their meaning is the model's (replace = per-unit
   substitution of matched units, leftmost alternative first; encodeURIComponent = ECMA-262 Encode with
   uriUnescaped), tied by the node correspondence of go/cmd/soyverif/c16units.go.  soy.$$truncate and the
   insertWordBreaks loop are compared as TEXT (comments and white space removed) with the text the model
   was written against -- not translated. *)
From Coq Require Import Lia ZifyN ZifyNat ZifyBool List.
From Soy Require Import Model.Bytes Generated.Tables Model.Utf8 Model.Outcome Model.Directives Model.JsEscape Model.JsDirectives
  Proofs.BytesBase Proofs.SourceTieBase.
Import ListNotations.
Open Scope N_scope.

(* ---- a regex character class and a replacement table ---- *)
Definition jst_in_class (cls : list (N * N)) (c : N) : bool := existsb (fun r => in_range (fst r) (snd r) c) cls.
Fixpoint jst_lookup (c : N) (tbl : list (N * list N)) : option (list N) :=
  match tbl with
  | [] => None
  | (k, v) :: r => if k =? c then Some v else jst_lookup c r
  end.

(* str.replace(MATCHER, function(ch) { return MAP[ch]; }) at one unit:
     None          the unit is not matched: copied
     Some (Some e) matched, replaced by e
     Some None     matched without an entry: JavaScript would write the text "undefined" (never the case:
                   the lemmas below give Some (Some _) or None for every unit) *)
Definition jst_replace1 (cls : list (N * N)) (tbl : list (N * list N)) (c : N) : option (option (list N)) :=
  if jst_in_class cls c then Some (jst_lookup c tbl) else None.

Lemma jst_oo_eqb_true (x y : option (option (list N))) : opt_eqb (opt_eqb bstr_eqb) x y = true -> x = y.
Proof. apply opt_eqb_true, opt_eqb_true, bstr_eqb_true. Qed.

(* soy.$$escapeJsString: the model's per-unit function IS matcher + map of soyutils.js *)
Theorem u_js_escape1_matches_source c : c < 65536 ->
  jst_replace1 jsu_js_matcher jsu_js_escape_map c = option_map Some (u_js_escape1 c).
Proof.
  intros _. revert c. apply (st_split_below _ 256); intros c Hc.
  - apply jst_oo_eqb_true. revert c Hc. apply forall_below. vm_compute. reflexivity.
  - destruct (N.eqb_spec c 8232) as [->|]; [reflexivity|]. destruct (N.eqb_spec c 8233) as [->|]; [reflexivity|].
    unfold jst_replace1, jst_in_class, jsu_js_matcher, in_range, u_js_escape1. cbn [existsb fst snd].
    st_decide_ifs. reflexivity.
Qed.

(* soy.$$escapeHtml *)
Theorem u_html_escape1_matches_source c : c < 65536 ->
  jst_replace1 jsu_html_matcher jsu_html_escape_map c = option_map Some (u_html_escape1 c).
Proof.
  intros _. revert c. apply (st_split_below _ 64); intros c Hc.
  - apply jst_oo_eqb_true. revert c Hc. apply forall_below. vm_compute. reflexivity.
  - unfold jst_replace1, jst_in_class, jsu_html_matcher, in_range, u_html_escape1. cbn [existsb fst snd].
    st_decide_ifs. reflexivity.
Qed.

(* hence the whole helpers, on every code-unit string *)
Fixpoint jst_replace (cls : list (N * N)) (tbl : list (N * list N)) (s : ustr) : option ustr :=
  match s with
  | [] => Some []
  | c :: r =>
      match jst_replace1 cls tbl c, jst_replace cls tbl r with
      | None, Some r' => Some (c :: r')
      | Some (Some e), Some r' => Some (e ++ r')
      | _, _ => None                      (* an "undefined" replacement *)
      end
  end.

Theorem u_escape_js_string_matches_source s : Forall (fun c => c < 65536) s ->
  jst_replace jsu_js_matcher jsu_js_escape_map s = Some (u_escape_js_string s).
Proof.
  induction 1 as [|c r Hc _ IH]; [reflexivity|]. cbn [jst_replace u_escape_js_string].
  rewrite IH, (u_js_escape1_matches_source c Hc). destruct (u_js_escape1 c); reflexivity.
Qed.

Theorem u_escape_html_matches_source s : Forall (fun c => c < 65536) s ->
  jst_replace jsu_html_matcher jsu_html_escape_map s = Some (u_escape_html s).
Proof.
  induction 1 as [|c r Hc _ IH]; [reflexivity|]. cbn [jst_replace u_escape_html].
  rewrite IH, (u_html_escape1_matches_source c Hc). unfold u_esc1. destruct (u_html_escape1 c); reflexivity.
Qed.

(* ---- soy.$$escapeUri ---- *)
Definition jst_encodeURIComponent : bstr := Eval vm_compute in b "encodeURIComponent".

(* goog.string.urlEncode is encodeURIComponent; soy.$$pctEncode_ is '%' + charCode.toString(16) *)
Theorem u_escape_uri_encoder_matches_source : jsu_uri_encoder = jst_encodeURIComponent /\ jsu_pct_lower_hex = true.
Proof. split; reflexivity. Qed.

(* the units encodeURIComponent leaves alone: a unit of soy.$$problematicUriMarks_ is then written as % and
   its (two-digit) lower-case hexadecimal code, every other one is copied *)
Definition jst_uri_mark_piece (c : N) : bstr :=
  if jst_in_class jsu_uri_marks c then [37; hexdigit_lc (c / 16); hexdigit_lc (c mod 16)] else [c].

Lemma in_range_point k c : in_range k k c = (c =? k).
Proof. unfold in_range. lia. Qed.

Theorem u_escape_uri_marks_matches_source c : c < 65536 -> uri_unescaped c = true ->
  u_escape_uri [c] = Ok (jst_uri_mark_piece c)
  /\ (jst_in_class jsu_uri_marks c = true -> 16 <= c < 256).
Proof.
  intros _ Hu. unfold jst_uri_mark_piece, jst_in_class, jsu_uri_marks. cbn [u_escape_uri existsb fst snd bind].
  rewrite Hu, app_nil_r, !in_range_point, Bool.orb_false_r, Bool.orb_assoc. split; [reflexivity | lia].
Qed.

(* every mark is a unit encodeURIComponent leaves alone (so the replace after it sees the unit itself) *)
Theorem u_escape_uri_marks_unescaped c : c < 65536 -> jst_in_class jsu_uri_marks c = true -> uri_unescaped c = true.
Proof.
  intros _. unfold jst_in_class, jsu_uri_marks, uri_unescaped, mem. cbn [existsb fst snd].
  rewrite !in_range_point. unfold in_range. lia.
Qed.

(* ---- soy.$$changeNewlineToBr: str.replace(/(a1|a2|...)/g, repl) ---- *)
Fixpoint jst_is_prefix (p s : list N) : bool :=
  match p, s with
  | [], _ => true
  | a :: p', c :: s' => (a =? c) && jst_is_prefix p' s'
  | _ :: _, [] => false
  end.
(* the length of the first alternative that matches at the head of s (regex alternation is ordered) *)
Fixpoint jst_first_alt (alts : list (list N)) (s : list N) : option nat :=
  match alts with
  | [] => None
  | a :: r => if jst_is_prefix a s then Some (length a) else jst_first_alt r s
  end.
(* global replace, left to right, non-overlapping; [skip] = units of the current match still to drop *)
Fixpoint jst_replace_alts (alts : list (list N)) (repl : list N) (skip : nat) (s : list N) : list N :=
  match s with
  | [] => []
  | c :: r =>
      match skip with
      | S k => jst_replace_alts alts repl k r
      | O =>
          match jst_first_alt alts s with
          | Some n => repl ++ jst_replace_alts alts repl (pred n) r
          | None => c :: jst_replace_alts alts repl 0 r
          end
      end
  end.

Lemma jst_first_alt_br c r :
  jst_first_alt jsu_br_alternatives (c :: r)
  = if c =? 13 then Some (match r with c2 :: _ => if c2 =? 10 then 2%nat else 1%nat | [] => 1%nat end)
    else if c =? 10 then Some 1%nat else None.
Proof.
  cbn [jst_first_alt jsu_br_alternatives jst_is_prefix length].
  rewrite (N.eqb_sym 13 c), (N.eqb_sym 10 c).
  destruct (c =? 13); cbn [andb].
  - destruct r as [|c2 r2]; [reflexivity|]. rewrite (N.eqb_sym 10 c2). destruct (c2 =? 10); reflexivity.
  - destruct (c =? 10); reflexivity.
Qed.

Lemma jst_nl2br_len n : forall s, (length s <= n)%nat ->
  nl2br s = jst_replace_alts jsu_br_alternatives jsu_br_replacement 0 s.
Proof.
  induction n as [|n IH]; intros s Hl.
  - destruct s; [reflexivity|cbn in Hl; lia].
  - destruct s as [|c r]; [reflexivity|]. cbn [length] in Hl.
    cbn [nl2br jst_replace_alts]. rewrite jst_first_alt_br.
    destruct (c =? 13).
    + destruct r as [|c2 r2]; [reflexivity|]. cbn [length] in Hl. destruct (c2 =? 10).
      * cbn [Nat.pred jst_replace_alts]. rewrite <- IH by lia. reflexivity.
      * cbn [Nat.pred]. rewrite <- IH by (cbn [length]; lia). reflexivity.
    + destruct (c =? 10); cbn [Nat.pred]; rewrite <- IH by lia; reflexivity.
Qed.

(* goog.string.newLineToBr(str, false) is the model's nl2br, for every unit string *)
Theorem u_newline_to_br_matches_source s :
  u_newline_to_br s = jst_replace_alts jsu_br_alternatives jsu_br_replacement 0 s.
Proof. unfold u_newline_to_br. apply (jst_nl2br_len (length s)). lia. Qed.

(* ---- surrogates, word break ---- *)
Theorem u_surrogates_match_source c :
  u_is_high c = in_range (fst jsu_high_surrogate) (snd jsu_high_surrogate) c
  /\ u_is_low c = in_range (fst jsu_low_surrogate) (snd jsu_low_surrogate) c.
Proof. split; reflexivity. Qed.

(* a mask with [n] zeros below it tests the bits from [n] on *)
Lemma land_shiftl_mask c m n : N.land c (N.shiftl m n) = N.shiftl (N.land (N.shiftr c n) m) n.
Proof.
  apply N.bits_inj. intro i. rewrite N.land_spec. destruct (N.ltb_spec i n).
  - rewrite !N.shiftl_spec_low by assumption. apply Bool.andb_false_r.
  - rewrite !N.shiftl_spec_high' by assumption. rewrite N.land_spec, N.shiftr_spec'. now rewrite N.sub_add.
Qed.

(* the shim's test (charCode & 0xFC00) != 0xDC00 is the model's "not a low surrogate": 0xFC00 is six ones above
   ten zeros, so the test compares charCode / 1024 with 0xDC00 / 1024 *)
Theorem u_low_surrogate_mask c : c < 65536 -> (N.land c 64512 =? 56320) = u_is_low c.
Proof.
  intro Hc. change 64512 with (N.shiftl (N.ones 6) 10).
  rewrite land_shiftl_mask, N.land_ones, N.shiftr_div_pow2, N.shiftl_mul_pow2.
  change (2 ^ 10) with 1024. change (2 ^ 6) with 64.
  pose proof (N.div_mod c 1024). pose proof (N.mod_lt c 1024).
  rewrite N.mod_small by (apply N.div_lt_upper_bound; lia).
  unfold u_is_low, in_range. lia.
Qed.

Theorem u_word_break_matches_source : jsu_word_break = wbr /\ jsu_br_replacement = br.
Proof. split; reflexivity. Qed.

(* ---- soy.$$truncate and the insertWordBreaks loop: the code as text ----
   The text Model/JsDirectives.v u_truncate / u_iwb_aux were written against (comments and white space
   outside literals removed).  Any edit of the two functions other than comments and layout breaks these. *)
Definition jst_truncate_text : bstr := Eval vm_compute in b
  "function(str,maxLen,doAddEllipsis){str=String(str);if(str.length<=maxLen){return str;}if(doAddEllipsis){if(maxLen>3){maxLen-=3;}else{doAddEllipsis=false;}}if(soy.$$isHighSurrogate_(str.charCodeAt(maxLen-1))&&soy.$$isLowSurrogate_(str.charCodeAt(maxLen))){maxLen-=1;}str=str.substring(0,maxLen);if(doAddEllipsis){str+='...';}return str;}".

Definition jst_insert_word_breaks_text : bstr := Eval vm_compute in b
  "function(str,maxCharsBetweenWordBreaks){str=String(str);var resultArr=[];var resultArrLen=0;var isInTag=false;var isMaybeInEntity=false;var numCharsWithoutBreak=0;var flushIndex=0;for(var i=0,n=str.length;i<n;++i){var charCode=str.charCodeAt(i);if(numCharsWithoutBreak>=maxCharsBetweenWordBreaks&&charCode!=32&&(charCode&0xFC00)!=0xDC00){resultArr[resultArrLen++]=str.substring(flushIndex,i);flushIndex=i;resultArr[resultArrLen++]=goog.format.WORD_BREAK;numCharsWithoutBreak=0;}if(isInTag){if(charCode==62){isInTag=false;}}else if(isMaybeInEntity){switch(charCode){case 59:isMaybeInEntity=false;++numCharsWithoutBreak;break;case 60:isMaybeInEntity=false;isInTag=true;break;case 32:isMaybeInEntity=false;numCharsWithoutBreak=0;break;}}else{switch(charCode){case 60:isInTag=true;break;case 38:isMaybeInEntity=true;break;case 32:numCharsWithoutBreak=0;break;default:++numCharsWithoutBreak;break;}}}resultArr[resultArrLen++]=str.substring(flushIndex);return resultArr.join('');}".

Theorem u_truncate_source_text : jsu_truncate_src = jst_truncate_text.
Proof. vm_compute. reflexivity. Qed.

Theorem u_insert_word_breaks_source_text : jsu_insert_word_breaks_src = jst_insert_word_breaks_text.
Proof. vm_compute. reflexivity. Qed.
