(* C19, parse half, scanner: where the error item of the two lexical fault classes stands.

   [stray_brace]: for EVERY scanner configuration l in the text state (whatever valid prefix led to
   it), if the unread input is a run of plain ASCII bytes (no '/', '{', '}') followed by '}', the
   scan ends there with one more item: the error item, positioned just after the brace.
   [illegal_char]: for every configuration inside a tag, if the unread input is white space followed
   by an ASCII character that starts no token, the scan ends with the error item positioned just
   after that character.  With Proofs/ErrTokProofs.line_after_byte: the line computed from the
   error item's position is the line of the offending character. *)
From Soy Require Import Model.Bytes Model.Utf8 Model.Outcome Model.Token Model.Lexer Generated.Tables Spec.ErrPos
  Model.Interp Proofs.ErrTokProofs.
From Soy Require Import Proofs.BytesBase.
From Coq Require Import ZifyBool Lia.
Open Scope Z_scope.

Lemma drop_cons_inv (s : bstr) : forall n c r, drop n s = c :: r -> drop (S n) s = r /\ (n < length s)%nat.
Proof.
  intros n c r H. split; [rewrite <- Nat.add_1_r, <- drop_drop, H; reflexivity|].
  apply (f_equal (@length _)) in H. rewrite drop_length in H. cbn in H. lia.
Qed.

Lemma drop_app_length (a c : bstr) : drop (length a) (a ++ c) = c.
Proof. apply drop_app_len. Qed.

Section Scan.
Variable ul ud : Z -> bool.
Variable inp : bstr.
Notation ilen := (Z.of_nat (length inp)).
Variable base : Z.            (* l.base: 0 for lex / lexExpr, the offset in the enclosing file for lexExprAt *)
Hypothesis Hbase : 0 <= base.

Lemma next_ascii l c r :
  0 <= l_pos l -> drop (Z.to_nat (l_pos l)) inp = c :: r -> (c < 128)%N ->
  next inp ilen l = Ok (Z.of_N c, {| l_pos := l_pos l + 1; l_start := l_start l; l_width := 1; l_dd := l_dd l;
                                     l_last := l_last l; l_out := l_out l; l_ticks := l_ticks l + 1 |})
  /\ drop (Z.to_nat (l_pos l + 1)) inp = r.
Proof.
  intros Hp Hd Hc. destruct (drop_cons_inv _ _ _ _ Hd) as [Hd' Hlt].
  unfold next.
  destruct (ilen <=? l_pos l) eqn:E; [lia|]. destruct (l_pos l <? 0) eqn:E2; [lia|].
  rewrite Hd. unfold decode_rune. apply N.ltb_lt in Hc. rewrite Hc. cbn.
  split; [reflexivity|]. replace (Z.to_nat (l_pos l + 1)) with (S (Z.to_nat (l_pos l))) by lia. exact Hd'.
Qed.

Definition err_item (pos : Z) (cls : bstr) : tok := {| t_typ := itemError; t_pos := Z.to_N pos; t_val := cls |}.

(* ---------------- stray closing brace in text ---------------- *)
Definition plain (c : N) : Prop := (c < 128)%N /\ c <> 47%N /\ c <> 123%N /\ c <> 125%N.

Lemma lex_text_loop_stray txt : forall fuel r0 l rest,
  Forall plain txt -> 0 <= l_pos l -> drop (Z.to_nat (l_pos l)) inp = txt ++ 125%N :: rest ->
  (length txt < fuel)%nat ->
  exists l', lex_text_loop inp ilen base fuel r0 l = Ok (LDone, l') /\
             l_out l' = err_item (base + l_pos l + Z.of_nat (length txt) + 1) e_close_brace :: l_out l.
Proof.
  induction txt as [|c t IH]; intros fuel r0 l rest Hpl Hp Hd Hf.
  - destruct fuel as [|f]; [lia|]. cbn [lex_text_loop app] in *.
    destruct (next_ascii l 125%N rest Hp Hd ltac:(lia)) as [Hn _]. rewrite Hn. cbn [bind].
    change (Z.of_N 125 =? 47) with false. cbn iota. cbn [bind].
    change (Z.of_N 125 =? 123) with false. change (Z.of_N 125 =? 125) with true. cbn iota.
    unfold errorf. cbn [l_pos]. destruct (base + (l_pos l + 1) <? 0) eqn:E; [lia|].
    eexists. split; [reflexivity|]. cbn [l_out length]. f_equal; unfold err_item; f_equal; lia.
  - inversion Hpl as [|? ? (Hc1 & Hc2 & Hc3 & Hc4) Hpl']; subst.
    destruct fuel as [|f]; [cbn in Hf; lia|]. cbn [lex_text_loop app] in *.
    destruct (next_ascii l c (t ++ 125%N :: rest) Hp Hd Hc1) as [Hn Hd1]. rewrite Hn. cbn [bind].
    assert (H47 : (Z.of_N c =? 47) = false) by lia.
    assert (H123 : (Z.of_N c =? 123) = false) by lia.
    assert (H125 : (Z.of_N c =? 125) = false) by lia.
    assert (Heof : (Z.of_N c =? eof) = false) by (unfold eof; lia).
    rewrite H47. cbn iota. cbn [bind]. rewrite H123, H125, Heof.
    set (l1 := {| l_pos := l_pos l + 1; l_start := l_start l; l_width := 1; l_dd := l_dd l;
                  l_last := l_last l; l_out := l_out l; l_ticks := l_ticks l + 1 |}) in *.
    assert (Hp1 : 0 <= l_pos l1) by (unfold l1; cbn [l_pos]; lia).
    assert (Hf1 : (length t < f)%nat) by (cbn [length] in Hf; lia).
    destruct (IH f (Z.of_N c) l1 rest Hpl' Hp1 Hd1 Hf1) as (l' & Hr & Ho).
    exists l'. split; [exact Hr|]. rewrite Ho. unfold l1. cbn [l_out l_pos length]. f_equal; unfold err_item; f_equal; lia.
Qed.

(* the scan from any text-state configuration: it stops at the brace, the error item is the last item sent *)
Theorem stray_brace fuel l txt rest :
  Forall plain txt -> 0 <= l_pos l -> drop (Z.to_nat (l_pos l)) inp = txt ++ 125%N :: rest ->
  exists l', run ul ud inp ilen base (S fuel) LText l = Ok l' /\
             l_out l' = err_item (base + l_pos l + Z.of_nat (length txt) + 1) e_close_brace :: l_out l.
Proof.
  intros Hpl Hp Hd. cbn [run step]. unfold lex_text.
  assert (Hlen : (length (drop (Z.to_nat (l_pos l)) inp) <= length inp - Z.to_nat (l_pos l))%nat).
  { clear. generalize (Z.to_nat (l_pos l)) as n. intros n. revert n. induction inp as [|x r IH]; intros n; [destruct n; cbn; lia|].
    destruct n; cbn [drop length]; [lia|]. specialize (IH n). destruct r; cbn in *; lia. }
  rewrite Hd, app_length in Hlen. cbn [length] in Hlen.
  destruct (lex_text_loop_stray txt (loop_fuel ilen l) 0 l rest Hpl Hp Hd) as (l' & Hr & Ho).
  { unfold loop_fuel. lia. }
  rewrite Hr. cbn [bind]. exists l'. split; [destruct fuel; reflexivity | exact Ho].
Qed.

(* ---------------- unrecognized character inside a tag ---------------- *)
(* the tests of lexInsideTag, in order, all failing: the character reaches `default:` *)
Definition reaches_default (r : Z) : bool :=
  negb (gen_isSpaceEOL r) && negb (r =? 47) && negb ((r =? 36) || (r =? 46)) && negb (r =? 91) && negb (r =? 93)
  && negb (r =? 63) && negb (r =? 45) && negb (r =? 125) && negb ((48 <=? r) && (r <=? 57))
  && negb (existsb (Z.eqb r) inside_tag_single_syms) && negb (existsb (Z.eqb r) inside_tag_cmp_syms)
  && negb (r =? 61) && negb ((r =? 34) || (r =? 39)) && negb (r =? eof) && negb (r =? 124)
  && negb (gen_isLetterOrUnderscore r) && negb (r =? 44) && negb (r =? 64).

Lemma lex_inside_tag_bad l c rest :
  0 <= l_pos l -> drop (Z.to_nat (l_pos l)) inp = c :: rest -> (c < 128)%N -> reaches_default (Z.of_N c) = true ->
  exists l', lex_inside_tag inp ilen base l = Ok (LDone, l') /\
             l_out l' = err_item (base + l_pos l + 1) e_bad_char :: l_out l.
Proof.
  intros Hp Hd Hc Hr. unfold reaches_default in Hr.
  repeat (apply andb_prop in Hr; destruct Hr as [Hr ?]).
  repeat match goal with H : negb _ = true |- _ => apply negb_true_iff in H end.
  unfold lex_inside_tag. destruct (next_ascii l c rest Hp Hd Hc) as [Hn _]. rewrite Hn. cbn [bind].
  repeat match goal with H : _ = false |- _ => rewrite H; clear H end. cbn iota. cbn [bind].
  unfold errorf. cbn [l_pos]. destruct (base + (l_pos l + 1) <? 0) eqn:E; [lia|].
  eexists. split; [reflexivity|]. cbn [l_out]. f_equal. unfold err_item. f_equal. lia.
Qed.

Definition space_byte (c : N) : Prop := (c < 128)%N /\ gen_isSpaceEOL (Z.of_N c) = true.

Theorem illegal_char ws : forall fuel l c rest,
  Forall space_byte ws -> 0 <= l_pos l ->
  drop (Z.to_nat (l_pos l)) inp = ws ++ c :: rest -> (c < 128)%N -> reaches_default (Z.of_N c) = true ->
  exists l', run ul ud inp ilen base (length ws + S fuel) LInsideTag l = Ok l' /\
             l_out l' = err_item (base + l_pos l + Z.of_nat (length ws) + 1) e_bad_char :: l_out l.
Proof.
  induction ws as [|x t IH]; intros fuel l c rest Hws Hp Hd Hc Hr.
  - cbn [length plus app] in *. cbn [run step].
    destruct (lex_inside_tag_bad l c rest Hp Hd Hc Hr) as (l' & Hl & Ho). rewrite Hl. cbn [bind].
    exists l'. split; [destruct fuel; reflexivity|]. rewrite Ho. f_equal; unfold err_item; f_equal; lia.
  - inversion Hws as [|? ? (Hx & Hsp) Hws']; subst. cbn [length plus app] in *. cbn [run step].
    unfold lex_inside_tag. destruct (next_ascii l x (t ++ c :: rest) Hp Hd Hx) as [Hn Hd1]. rewrite Hn. cbn [bind].
    rewrite Hsp. cbn [bind].
    set (l1 := ignore {| l_pos := l_pos l + 1; l_start := l_start l; l_width := 1; l_dd := l_dd l;
                         l_last := l_last l; l_out := l_out l; l_ticks := l_ticks l + 1 |}).
    assert (Hp1 : 0 <= l_pos l1) by (unfold l1, ignore, set_start; cbn [l_pos]; lia).
    assert (Hd2 : drop (Z.to_nat (l_pos l1)) inp = t ++ c :: rest) by (unfold l1, ignore, set_start; cbn [l_pos]; exact Hd1).
    destruct (IH fuel l1 c rest Hws' Hp1 Hd2 Hc Hr) as (l' & Hl & Ho).
    exists l'. split; [exact Hl|]. rewrite Ho. unfold l1, ignore, set_start. cbn [l_out l_pos length]. f_equal; unfold err_item; f_equal; lia.
Qed.
End Scan.

Open Scope N_scope.

(* the line lexer.lineNumber computes from the error item of a stray brace standing at byte offset
   |pre| of the input is the line of that brace: 1 + the number of line feeds before it *)
Theorem stray_brace_line pre post :
  line_at (pre ++ 125 :: post) (N.of_nat (length pre) + 1) = 1 + count_nl pre.
Proof. apply (line_after_byte pre 125 post). discriminate. Qed.

Theorem illegal_char_line pre c post :
  c <> 10 -> line_at (pre ++ c :: post) (N.of_nat (length pre) + 1) = 1 + count_nl pre.
Proof. intros H. apply (line_after_byte pre c post H). Qed.

(* the characters the harness injects reach `default:` *)
Example illegal_chars_reach_default :
  forallb (fun c => reaches_default (Z.of_N c)) [94; 126; 35; 59; 38; 96; 1; 92] = true.
Proof. vm_compute. reflexivity. Qed.
