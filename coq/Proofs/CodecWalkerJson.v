(* C16 <-> C06: the walker-level model of the directive json (Model/InterpJson.v,
   the hook dir_json of the extended walker walk_xj) computes, on values whose map keys
   are strictly increasing at every level (the invariant of Model/Values.v) and whose floats the two
   float printers write alike, EXACTLY the encoder this
   property's theorems are about (Model/JsonEncode.v json_encode with the regenerated nil flag).  So the
   round-trip theorems of Properties/C16.v speak about what a render through walk_xj writes for
   {$v|json}, not about a second model.  (Model/Directives.v apply_fn itself keeps answering OutOfModel
   for the two directives: see bin/claims/C16.json.) *)
From Coq Require Import Lia ZifyBool.
From Soy Require Import Model.Bytes Generated.Tables Model.Utf8 Model.Num Model.Outcome Model.Values Model.Escape Model.Directives
  Model.JsEscape Model.JsonEncode Model.InterpJson Spec.Json Proofs.ValueProofs Proofs.CodecJson.
Open Scope N_scope.

(* map keys strictly increasing at every level; and, for every float inside the value, the two models give
   the same text (InterpJson.json_float and JsonEncode.json_float are separate definitions with separate
   printing domains; the float clause is cwj_floats below) *)
Fixpoint cwj_sorted (v : value) : Prop :=
  match v with
  | VFloat x => InterpJson.json_float x = JsonEncode.json_float x
  | VList _ l => (fix all (l : list value) : Prop := match l with [] => True | x :: r => cwj_sorted x /\ all r end) l
  | VMap _ m =>
      keys_sorted (map fst m) /\
      (fix all (m : list (bstr * value)) : Prop := match m with [] => True | (k, x) :: r => cwj_sorted x /\ all r end) m
  | _ => True
  end.

Lemma cwj_sorted_list id l : cwj_sorted (VList id l) <-> Forall cwj_sorted l.
Proof. apply all_Forall. Qed.

Lemma cwj_sorted_map id m : cwj_sorted (VMap id m) <-> keys_sorted (map fst m) /\ Forall (fun kx => cwj_sorted (snd kx)) m.
Proof. apply and_iff_compat_l, (all_pairs_Forall (fun _ x => cwj_sorted x)). Qed.

(* every float inside the value is written alike by the two models *)
Fixpoint cwj_floats (v : value) : Prop :=
  match v with
  | VFloat x => InterpJson.json_float x = JsonEncode.json_float x
  | VList _ l => (fix all (l : list value) : Prop := match l with [] => True | x :: r => cwj_floats x /\ all r end) l
  | VMap _ m => (fix all (m : list (bstr * value)) : Prop := match m with [] => True | (k, x) :: r => cwj_floats x /\ all r end) m
  | _ => True
  end.

Lemma cwj_floats_list id l : cwj_floats (VList id l) <-> Forall cwj_floats l.
Proof. apply all_Forall. Qed.

Lemma cwj_floats_map id m : cwj_floats (VMap id m) <-> Forall (fun kx => cwj_floats (snd kx)) m.
Proof. apply (all_pairs_Forall (fun _ x => cwj_floats x)). Qed.

(* the hypothesis of C16_json_roundtrip (json_ok) gives the sorted keys *)
Lemma json_ok_cwj_sorted nn : forall v, json_ok nn v -> cwj_floats v -> cwj_sorted v.
Proof.
  apply (value_ind2 (fun v => json_ok nn v -> cwj_floats v -> cwj_sorted v)); try (intros; exact I).
  - intros x _ H. exact H.
  - intros id l IH H Hf. apply json_ok_list in H. destruct H as [_ H]. apply cwj_floats_list in Hf. apply cwj_sorted_list.
    rewrite Forall_forall in *. intros x Hx. apply IH; [exact Hx|apply H, Hx|apply Hf, Hx].
  - intros id m IH H Hf. apply json_ok_map in H. destruct H as (_ & Hs & H). apply cwj_floats_map in Hf.
    apply cwj_sorted_map. split; [exact Hs|].
    rewrite Forall_forall in *. intros kx Hx. apply IH; [exact Hx|apply H, Hx|apply Hf, Hx].
Qed.

(* ---- sort.Strings on sorted keys: InterpJson.sorted_fields is the identity ---- *)
Lemma cwj_head_lt k ks : keys_sorted (k :: ks) -> Forall (fun k' => bstr_ltb k k' = true) ks.
Proof.
  revert k; induction ks as [|k2 r IH]; intros k H; [constructor|].
  cbn [keys_sorted] in H. destruct H as [Hlt Hs]. constructor; [exact Hlt|].
  eapply Forall_impl; [|apply IH; exact Hs]. intros k' Hk'. cbn beta in Hk'. eapply bstr_ltb_trans; eassumption.
Qed.

Lemma cwj_sorted_tail k ks : keys_sorted (k :: ks) -> keys_sorted ks.
Proof. destruct ks as [|k2 r]; [intros; exact I|]. cbn [keys_sorted]. intros [_ H]. exact H. Qed.

Lemma cwj_map_set_append acc k v : Forall (fun kx => bstr_ltb (fst kx) k = true) acc -> map_set acc k v = acc ++ [(k, v)].
Proof.
  induction 1 as [|[k' v'] r Hlt _ IH]; [reflexivity|]. cbn [fst] in Hlt. cbn [map_set app].
  assert (bstr_eqb k k' = false) as ->.
  { destruct (bstr_eqb_spec k k') as [->|]; [|reflexivity]. rewrite bstr_ltb_irrefl in Hlt. discriminate. }
  rewrite (bstr_ltb_asym _ _ Hlt). rewrite IH. reflexivity.
Qed.

Lemma cwj_fold_sorted m : forall acc, keys_sorted (map fst m) ->
  (forall kx, In kx acc -> forall ky, In ky m -> bstr_ltb (fst kx) (fst ky) = true) ->
  fold_left (fun acc kv => map_set acc (fst kv) (snd kv)) m acc = acc ++ m.
Proof.
  induction m as [|[k v] r IH]; intros acc Hs Hlt; [cbn; rewrite app_nil_r; reflexivity|].
  cbn [fold_left fst snd]. rewrite cwj_map_set_append.
  - rewrite IH.
    + rewrite <- app_assoc. reflexivity.
    + cbn [map fst] in Hs. eapply cwj_sorted_tail; exact Hs.
    + intros kx Hx ky Hy. apply in_app_or in Hx. destruct Hx as [Hx|[<-|[]]].
      * apply Hlt; [exact Hx|right; exact Hy].
      * cbn [map fst] in Hs. pose proof (cwj_head_lt _ _ Hs) as Hh. rewrite Forall_forall in Hh.
        cbn [fst]. apply Hh. apply in_map. exact Hy.
  - apply Forall_forall. intros kx Hx. apply (Hlt kx Hx (k, v)). left; reflexivity.
Qed.

Lemma cwj_sorted_fields m : keys_sorted (map fst m) -> sorted_fields m = m.
Proof. intro Hs. unfold sorted_fields. rewrite cwj_fold_sorted; [reflexivity|exact Hs|intros kx []]. Qed.

Section Bridge.
Let nn := json_nil_null.

Lemma cwj_items f l : (forall x, In x l -> json_value f x = json_encode nn x) -> json_items (json_value f) l = enc_items nn l.
Proof.
  induction l as [|x r IH]; intros H; [reflexivity|]. cbn [json_items enc_items].
  rewrite (H x (or_introl eq_refl)). rewrite IH by (intros y Hy; apply H; right; exact Hy). reflexivity.
Qed.

Lemma cwj_fields f m : (forall kx, In kx m -> json_value f (snd kx) = json_encode nn (snd kx)) ->
  json_fields (json_value f) m = (items <- enc_members nn m ;; Ok (map json_member items)).
Proof.
  induction m as [|[k x] r IH]; intros H; [reflexivity|]. cbn [json_fields enc_members].
  pose proof (H (k, x) (or_introl eq_refl)) as Hx. cbn [snd] in Hx. rewrite Hx. rewrite IH by (intros y Hy; apply H; right; exact Hy).
  destruct (json_encode nn x) as [s| | | | |]; cbn [bind]; try reflexivity.
  destruct (enc_members nn r) as [rs| | | | |]; cbn [bind]; reflexivity.
Qed.

Theorem cwj_json_value : forall v, cwj_sorted v -> forall f, (depth v < f)%nat -> json_value f v = json_encode nn v.
Proof.
  apply (value_ind2 (fun v => cwj_sorted v -> forall f, (depth v < f)%nat -> json_value f v = json_encode nn v)).
  - intros _ [|f] Hd; [lia|reflexivity].
  - intros _ [|f] Hd; [lia|reflexivity].
  - intros x _ [|f] Hd; [lia|destruct x; reflexivity].
  - intros z _ [|f] Hd; [lia|reflexivity].
  - intros x Hx [|f] Hd; [lia|]. cbn [json_value json_encode]. exact Hx.
  - intros s _ [|f] Hd; [lia|reflexivity].
  - intros id l IH Hs f Hd. destruct f as [|f]; [lia|]. apply cwj_sorted_list in Hs. cbn [depth] in Hd.
    rewrite json_encode_list. cbn [json_value]. destruct l as [|x r].
    + unfold is_nil_coll. fold nn. destruct (id =? 0), nn; reflexivity.
    + unfold is_nil_coll. rewrite Bool.andb_false_r.
      rewrite cwj_items; [reflexivity|]. intros y Hy. rewrite Forall_forall in IH, Hs.
      apply IH; [exact Hy|apply Hs, Hy|]. pose proof (fold_max_le depth y _ Hy). lia.
  - intros id m IH Hs f Hd. destruct f as [|f]; [lia|]. apply cwj_sorted_map in Hs. destruct Hs as [Hk Hs]. cbn [depth] in Hd.
    rewrite json_encode_map. cbn [json_value]. destruct m as [|kx0 r].
    + unfold is_nil_coll. fold nn. destruct (id =? 0), nn; reflexivity.
    + unfold is_nil_coll. rewrite Bool.andb_false_r. rewrite cwj_sorted_fields by exact Hk.
      rewrite cwj_fields.
      * destruct (enc_members nn (kx0 :: r)) as [items| | | | |] eqn:Em; cbn [bind]; try reflexivity.
        rewrite sort_kv_sorted; [reflexivity|]. rewrite (enc_members_keys nn _ _ Em). exact Hk.
      * intros y Hy. rewrite Forall_forall in IH, Hs.
        apply IH; [exact Hy|apply Hs, Hy|]. pose proof (fold_max_le (fun kx => depth (snd kx)) y _ Hy). lia.
Qed.

(* what {$v|json} writes in a render through walk_xj is json_encode of the value *)
Theorem cwj_json_of v : cwj_sorted v -> json_of v = json_encode nn v.
Proof. intro H. unfold json_of. apply cwj_json_value; [exact H|lia]. Qed.

Theorem cwj_dir_json v args : cwj_sorted v ->
  dir_json (Some v) args = (s <- json_encode nn v ;; Ok (Some (VStr s))).
Proof. intro H. unfold dir_json. rewrite cwj_json_of by exact H. reflexivity. Qed.

(* the round trip, stated for the directive as the extended walker applies it *)
Theorem cwj_dir_json_roundtrip v args s : json_ok nn v -> cwj_floats v ->
  dir_json (Some v) args = Ok (Some (VStr s)) ->
  exists j, jv_of_value v = Some j /\ Spec.Json.json_parse s = Some j.
Proof.
  intros Hok Hfl Hd. rewrite cwj_dir_json in Hd by (apply (json_ok_cwj_sorted nn); assumption).
  destruct (json_encode nn v) as [s'| | | | |] eqn:E; cbn [bind] in Hd; try discriminate.
  injection Hd as <-. apply (json_roundtrip nn v s' Hok E).
Qed.
End Bridge.

(* not vacuous: a nested value with a map, a list, a nil list and strings *)
Example cwj_nonvacuous :
  let v := VMap 1 [(b "a", VList 2 [VInt 1; VStr (b "<x>"); VNull]); (b "b", VList 0 [])] in
  cwj_sorted v /\ exists s, json_of v = Ok s /\ json_encode json_nil_null v = Ok s.
Proof. split; [cbn; repeat split; reflexivity|]. eexists. split; vm_compute; reflexivity. Qed.
