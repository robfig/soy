(* [Proofs/InterpSub.v]'s node-indexed walker principle with ONE change: the obligation for [fail e] is
   asked only for the error texts the walker itself raises ([walker_fail_texts], checked by computation at
   every [fail] site of [walk_node]), not for every byte string.  A predicate that depends on WHICH error a
   run ends with -- "never the instrument's marker [e_capped]", "an error text of the fixed list" -- is not
   a [walker_logic_sub] ([ws_fail] quantifies over all texts); it is a [walker_logic_sube].
   [walker_fail_texts] is the list [walker_fail_sites] for which the one-unfolding principle of InterpSub asks
   [fail], so this is that principle read on one run. *)
From Soy Require Import Model.Bytes Model.Num Model.Values Model.Outcome Model.Ast
  Model.Escape Model.Directives Model.Print Generated.Tables Model.Interp Proofs.InterpLogic Proofs.InterpSub.
Require Import Lia List.
Import ListNotations.
Open Scope N_scope.

(* every text passed to [fail] by Model/Interp.v (a superset is harmless) *)
Definition walker_fail_texts : list bstr :=
  [ Interp.e_write; Interp.e_undefined; Interp.e_notnumber; Interp.e_type; Interp.e_notlist; Interp.e_notmap;
    Interp.e_notemplate; Interp.e_noij; Interp.e_nullref; Interp.e_index; Interp.e_key; Interp.e_noncollection;
    Interp.e_unknown; Interp.e_func; Interp.e_arity; Interp.e_impossible; Interp.e_divzero; Interp.e_range;
    Interp.e_plural; Interp.e_placeholder; Print.e_nodirective; Print.e_arity; Print.e_nilapply ].
Definition walker_fail_text (e : bstr) : bool := existsb (bstr_eqb e) walker_fail_texts.

Section SubE.
Variable cf : cfg.
Variable Phi : forall A : Type, M A -> Prop.
Arguments Phi {A} _.
Variable pure_ok : forall A : Type, outcome A -> Prop.
Arguments pure_ok {A} _.

Record walker_logic_sube : Prop := {
  wse_ext : forall A (m m' : M A), (forall st, m st = m' st) -> Phi m -> Phi m';
  wse_ret : forall A (x : A), Phi (ret x);
  wse_fail : forall A e, walker_fail_text e = true -> Phi (@fail A e);
  wse_lift : forall A (o : outcome A), pure_ok o -> Phi (lift o);
  wse_bind : forall A B (m : M A) (f : A -> M B), Phi m -> (forall x, Phi (f x)) -> Phi (mbind m f);
  wse_template_mode : forall ae, Phi (modify (fun st => set_mode st (template_mode (mode st) ae)));
  wse_write : forall w, Phi (write w);
  wse_set : forall k v, Phi (m_set k v);
  wse_lookup : forall k, Phi (m_lookup k);
  wse_fresh_list : forall l, Phi (fresh_list l);
  wse_fresh_list_or_nil : forall l, Phi (fresh_list_or_nil l);
  wse_fresh_map : forall m, Phi (fresh_map m);
  wse_read_mode : forall B (f : N -> M B), (forall x, Phi (f x)) -> Phi (st <-- get ;;; f (mode st));
  wse_read_ctx : forall B (f : scope -> M B), (forall x, Phi (f x)) -> Phi (st <-- get ;;; f (ctx st));
  wse_scoped : forall (m : M unit), Phi m -> Phi (_ <-- m_push ;;; _ <-- m ;;; _ <-- m_pop ;;; ret VUndef);
  wse_eval : forall (w : node -> M value) e, Phi (w e) -> Phi (eval w e);
  wse_block : forall (w : node -> M value) body, Phi (w body) -> Phi (render_block w body);
}.

Record pure_sites_sube : Prop := {
  psse_arith : forall op x y, pure_ok (arith op x y);
  psse_compare : forall op x y, pure_ok (compare_op op x y);
  psse_string : forall v, pure_ok (value_string v);
  psse_print : forall m ds s, pure_ok (print_writes m ds s);
  psse_func : forall name ar vs, func_arities name = Some ar -> pure_ok (apply_func name vs);
}.

Hypothesis L : walker_logic_sube.
Hypothesis PS : pure_sites_sube.

Lemma sube_body_logic : body_logic (fun A _ m => Phi m) (@pure_ok).
Proof. destruct L. constructor; eauto. apply (scoped2_of_scoped (fun A _ m => Phi m)); eauto. Qed.
Lemma sube_pure_sites : pure_sites_sub (@pure_ok).
Proof. destruct PS. constructor; assumption. Qed.

Theorem phi_walk_body_sube (w : node -> M value) n :
  Phi (modify (fun st => set_cur st (pos_of n))) ->
  (forall n', In n' (subnodes n) -> Phi (w n')) ->
  (forall callee cd, callee_of cf n = Some callee -> Phi (call_enter w callee cd)) ->
  Phi (walk_body cf w n).
Proof.
  intros Hcur H Hcall.
  apply (bphi_walk_body cf _ _ sube_body_logic sube_pure_sites w w n Hcur); [|apply Forall_forall, H | exact Hcall].
  intros. apply (wse_template_mode L).
Qed.
End SubE.
