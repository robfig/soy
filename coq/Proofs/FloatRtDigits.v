(* Float round trip, part 2: the decimal Num.shortest_decimal chooses lies in the rounding interval of
   the float it prints (whatever the digit search does: every exit of [shortest_from] is either the
   exact value or a candidate that passed [in_interval]), and stripping trailing zeros keeps it there. *)
From Soy Require Import Model.Bytes Model.Num Model.NumLit Proofs.NumLitProofs Proofs.FloatRtRound.
From Coq Require Import ZifyBool ZifyNat ZifyN Lia.
Open Scope Z_scope.

(* the comparisons of the digit search with 10^p as the fraction rt_up 10 p / rt_up 10 (- p) *)
Lemma rt_scaled_cmp_up c p n d : scaled_cmp c p n d = (c * rt_up 10 (- p) * d ?= n * rt_up 10 p).
Proof.
  unfold scaled_cmp, pow10. destruct (Z.leb_spec 0 p).
  - rewrite (rt_up_nonpos 10 (- p)), rt_up_nonneg by lia. f_equal. ring.
  - rewrite (rt_up_nonpos 10 p), rt_up_nonneg by lia. f_equal. ring.
Qed.
Lemma rt_ge_pow10_up num den k : ge_pow10 num den k = (den * rt_up 10 k <=? num * rt_up 10 (- k)).
Proof.
  unfold ge_pow10, pow10. destruct (Z.leb_spec 0 k).
  - rewrite (rt_up_nonpos 10 (- k)), rt_up_nonneg by lia. f_equal. ring.
  - rewrite (rt_up_nonpos 10 k), rt_up_nonneg by lia. f_equal. ring.
Qed.
Lemma rt_tn_up x p : (if 0 <=? p then x * pow10 p else x) = x * rt_up 10 p.
Proof. unfold pow10. destruct (Z.leb_spec 0 p); [rewrite rt_up_nonneg|rewrite rt_up_nonpos]; lia. Qed.
Lemma rt_td_up den p : (if 0 <=? p then den else den * pow10 (- p)) = den * rt_up 10 (- p).
Proof. unfold pow10. destruct (Z.leb_spec 0 p); [rewrite rt_up_nonpos|rewrite rt_up_nonneg]; lia. Qed.

Lemma rt_in_strict incl lo hi den c p :
  scaled_cmp c p lo den = Gt -> scaled_cmp c p hi den = Lt -> in_interval incl lo hi den c p = true.
Proof. intros A B. unfold in_interval. rewrite A, B. reflexivity. Qed.

(* c 10^(-p) = x / den  puts (c, p) strictly between lo and hi *)
Lemma rt_exact_in incl lo hi den c p x :
  0 < den -> lo < x < hi -> x * rt_up 10 p = c * rt_up 10 (- p) * den -> in_interval incl lo hi den c p = true.
Proof.
  intros Hden Hx Hc. pose proof (rt_up_pos 10 p ltac:(lia)).
  apply rt_in_strict; rewrite rt_scaled_cmp_up, <- Hc; [apply Z.compare_gt_iff|apply Z.compare_lt_iff]; apply Z.mul_lt_mono_pos_r; lia.
Qed.

Lemma rt_shortest_from_sound fuel : forall n k incl x lo hi den c p,
  0 < den -> lo < x < hi ->
  shortest_from fuel n k incl x lo hi den = Some (c, p) ->
  in_interval incl lo hi den c p = true.
Proof.
  induction fuel as [|f IH]; intros n k incl x lo hi den c p Hden Hx H; [discriminate|].
  cbn [shortest_from] in H. cbv zeta in H. rewrite rt_tn_up, rt_td_up in H.
  set (p0 := n - k) in *. set (tn := x * rt_up 10 p0) in *. set (td := den * rt_up 10 (- p0)) in *.
  destruct (Z.eqb_spec (tn mod td) 0) as [Hr|Hr].
  - injection H as <- <-.
    assert (Htd : 0 < td) by (apply Z.mul_pos_pos; [exact Hden|apply rt_up_pos; lia]).
    pose proof (Z.div_mod tn td ltac:(lia)) as Hdm. rewrite Hr, Z.add_0_r in Hdm.
    apply (rt_exact_in incl lo hi den (tn / td) p0 x Hden Hx). fold tn. rewrite Hdm at 1. unfold td. ring.
  - destruct (in_interval incl lo hi den (tn / td) p0) eqn:Dok; destruct (in_interval incl lo hi den (tn / td + 1) p0) eqn:Uok; cbn [andb] in H.
    + injection H as <- <-. match goal with |- context [Z.compare ?a ?b] => destruct (Z.compare a b) end; [destruct (Z.even (tn / td))| |]; assumption.
    + injection H as <- <-. exact Dok.
    + injection H as <- <-. exact Uok.
    + exact (IH _ _ _ _ _ _ _ _ _ Hden Hx H).
Qed.

(* one trailing zero less: the same decimal *)
Lemma rt_scaled_cmp_strip c1 p n d : scaled_cmp (10 * c1) p n d = scaled_cmp c1 (p - 1) n d.
Proof.
  rewrite !rt_scaled_cmp_up. pose proof (rt_up_add 10 (p - 1) 1) as E. replace (p - 1 + 1) with p in E by ring.
  change (rt_up 10 1) with 10 in E. change (rt_up 10 (- (1))) with 1 in E.
  apply (rt_compare_cross _ _ _ _ (rt_up 10 (p - 1)) (rt_up 10 p)); [apply rt_up_pos; lia..| |ring].
  replace (10 * c1 * rt_up 10 (- p) * d * rt_up 10 (p - 1)) with (c1 * d * (rt_up 10 (p - 1) * 10 * rt_up 10 (- p))) by ring.
  rewrite E. ring.
Qed.

Lemma rt_strip10_sound fuel : forall c p c' p' incl lo hi den,
  strip10 fuel c p = (c', p') -> in_interval incl lo hi den c p = true -> in_interval incl lo hi den c' p' = true.
Proof.
  induction fuel as [|f IH]; intros c p c' p' incl lo hi den H Hin.
  - cbn in H. injection H as <- <-. exact Hin.
  - cbn [strip10] in H. destruct ((c mod 10 =? 0) && negb (c =? 0)) eqn:C.
    + assert (E : c = 10 * (c / 10)) by (pose proof (Z.div_mod c 10 ltac:(lia)); lia).
      apply (IH _ _ _ _ incl lo hi den H).
      unfold in_interval in *. rewrite <- !rt_scaled_cmp_strip, <- E. exact Hin.
    + injection H as <- <-. exact Hin.
Qed.

Lemma rt_strip10_pos fuel : forall c p c' p', 0 < c -> strip10 fuel c p = (c', p') -> 0 < c'.
Proof.
  induction fuel as [|f IH]; intros c p c' p' Hc H; cbn [strip10] in H; [injection H as <- _; exact Hc|].
  destruct ((c mod 10 =? 0) && negb (c =? 0)) eqn:E; [|injection H as <- _; exact Hc].
  apply (IH _ _ _ _) in H; [exact H|]. pose proof (Z.div_mod c 10 ltac:(lia)). lia.
Qed.

Lemma rt_in_interval_pos incl lo hi den c p : 0 < lo -> 0 < den -> in_interval incl lo hi den c p = true -> 0 < c.
Proof.
  intros Hlo Hden H. unfold in_interval in H. apply andb_prop in H as [A _]. rewrite rt_scaled_cmp_up in A.
  pose proof (rt_up_pos 10 p ltac:(lia)). pose proof (rt_up_pos 10 (- p) ltac:(lia)).
  assert (0 < lo * rt_up 10 p) by (apply Z.mul_pos_pos; lia).
  destruct (Z.compare_spec (c * rt_up 10 (- p) * den) (lo * rt_up 10 p)); try discriminate; nia.
Qed.

(* the digits are those of a positive integer, whatever the interval *)
Lemma rt_shortest_from_pos fuel : forall n k incl x lo hi den c p,
  0 < x -> 0 < lo -> 0 < den -> shortest_from fuel n k incl x lo hi den = Some (c, p) -> 0 < c.
Proof.
  induction fuel as [|f IH]; intros n k incl x lo hi den c p Hx Hlo Hden H; cbn [shortest_from] in H; [discriminate|].
  cbv zeta in H. rewrite rt_tn_up, rt_td_up in H.
  set (pp := n - k) in *. set (tn := x * rt_up 10 pp) in *. set (td := den * rt_up 10 (- pp)) in *.
  assert (Htn : 0 < tn) by (apply Z.mul_pos_pos; [exact Hx|apply rt_up_pos; lia]).
  assert (Htd : 0 < td) by (apply Z.mul_pos_pos; [exact Hden|apply rt_up_pos; lia]).
  assert (Hcd : 0 <= tn / td) by (apply Z.div_pos; lia).
  destruct (Z.eqb_spec (tn mod td) 0) as [Er|Er].
  - injection H as <- <-. pose proof (Z.div_mod tn td ltac:(lia)) as Hdm. rewrite Er in Hdm. nia.
  - destruct (in_interval incl lo hi den (tn / td) pp) eqn:Hd; destruct (in_interval incl lo hi den (tn / td + 1) pp) eqn:Hu; cbn [andb] in H.
    + pose proof (rt_in_interval_pos _ _ _ _ _ _ Hlo Hden Hd) as Hpos. injection H as <- <-.
      match goal with |- 0 < match ?cmp with _ => _ end => destruct cmp end; try lia. destruct (Z.even (tn / td)); lia.
    + injection H as <- <-. exact (rt_in_interval_pos _ _ _ _ _ _ Hlo Hden Hd).
    + injection H as <- <-. lia.
    + exact (IH _ _ _ _ _ _ _ _ _ Hx Hlo Hden H).
Qed.

(* the digit search of shortest_decimal, then strip10: a positive c with c 10^(-p) in the interval *)
Lemma rt_search_sound f1 f2 n k incl X LO P N c0 p0 c p :
  0 < LO < X -> 0 < P -> 0 < N ->
  shortest_from f1 n k incl (X * P) (LO * P) ((X + 2) * P) N = Some (c0, p0) -> strip10 f2 c0 p0 = (c, p) ->
  in_interval incl (LO * P) ((X + 2) * P) N c p = true /\ 0 < c.
Proof.
  intros HLO HP HN SF ST. split.
  - apply (rt_strip10_sound _ _ _ _ _ _ _ _ _ ST), (rt_shortest_from_sound _ _ _ _ _ _ _ _ _ _ HN) with (2 := SF).
    split; apply Z.mul_lt_mono_pos_r; lia.
  - apply (rt_strip10_pos _ _ _ _ _) with (2 := ST), (rt_shortest_from_pos _ _ _ _ _ _ _ _ _ _) with (4 := SF); [apply Z.mul_pos_pos; lia..|exact HN].
Qed.

Lemma rt_up_if b e : (if 0 <=? e then b ^ e else 1) = rt_up b e /\ (if 0 <=? e then 1 else b ^ (- e)) = rt_up b (- e).
Proof. destruct (Z.leb_spec 0 e); [rewrite rt_up_nonneg, rt_up_nonpos by lia|rewrite rt_up_nonpos, rt_up_nonneg by lia]; auto. Qed.

Lemma rt_scaled_is_cmp c p K s :
  scaled_cmp c p (K * rt_P2 s) (rt_N2 s) = rt_cmp (c * rt_up 10 (- p)) (rt_up 10 p) K s.
Proof. rewrite rt_scaled_cmp_up. unfold rt_cmp. f_equal; ring. Qed.

(* how far the decimal exponent can be from zero *)
Lemma rt_shortest_from_p fuel : forall n k incl x lo hi den c p,
  shortest_from fuel n k incl x lo hi den = Some (c, p) -> n - k <= p < n - k + Z.of_nat fuel.
Proof.
  induction fuel as [|f IH]; intros n k incl x lo hi den c p H; [discriminate|].
  cbn [shortest_from] in H. cbv zeta in H.
  match type of H with (if ?b then _ else _) = _ => destruct b end; [injection H as <- <-; lia|].
  match type of H with (if ?b then _ else _) = _ => destruct b end; [injection H as <- <-; lia|].
  match type of H with (if ?b then _ else _) = _ => destruct b end; [injection H as <- <-; lia|].
  match type of H with (if ?b then _ else _) = _ => destruct b end; [injection H as <- <-; lia|].
  apply IH in H. lia.
Qed.

Lemma rt_strip10_p fuel : forall c p c' p', strip10 fuel c p = (c', p') -> p - Z.of_nat fuel <= p' <= p.
Proof.
  induction fuel as [|f IH]; intros c p c' p' H.
  - cbn in H. injection H as <- <-. lia.
  - cbn [strip10] in H. destruct ((c mod 10 =? 0) && negb (c =? 0)); [apply IH in H; lia|injection H as <- <-; lia].
Qed.

Lemma rt_dec_exponent_range num den k : dec_exponent num den = Some k ->
  let k0 := ((Z.log2 num - Z.log2 den) * 30103) / 100000 in k0 - 1 <= k <= k0 + 2.
Proof.
  unfold dec_exponent. cbv zeta. intros H. apply find_some in H as [Hin _].
  cbn [In] in Hin. lia.
Qed.

(* the statement about Num.shortest_decimal the string level uses *)
Theorem rt_shortest_decimal_sound (q : positive) (e : Z) ds dp :
  podd q -> Zpos q < two53 -> -1000 < e < 900 ->
  shortest_decimal (Zpos q) e = Some (ds, dp) ->
  exists c p, 0 < c /\ ds = dec_of_Z c /\ dp = Z.of_nat (length ds) - p /\ -350 < p < 350 /\
    forall neg n d, 0 < n -> 0 < d -> n * rt_up 10 p = c * rt_up 10 (- p) * d ->
      round_ratio neg n d = FRVal (FFin (if neg then Zneg q else Zpos q) e).
Proof.
  intros Hodd Hq53 He H. unfold shortest_decimal in H. cbv zeta in H.
  set (shift := 53 - (Z.log2 (Zpos q) + 1)) in *.
  set (s := e - shift - 2) in *.
  set (X := 4 * Zpos q * 2 ^ shift) in *.
  set (LO := if Zpos q =? 1 then X - 1 else X - 2) in *.
  rewrite (proj1 (rt_up_if 2 s)), (proj2 (rt_up_if 2 s)) in H. fold (rt_P2 s) (rt_N2 s) in H.
  destruct (dec_exponent (X * rt_P2 s) (rt_N2 s)) as [k|] eqn:DE; [|discriminate].
  destruct (shortest_from 17 1 k (1 <=? shift) (X * rt_P2 s) (LO * rt_P2 s) ((X + 2) * rt_P2 s) (rt_N2 s)) as [[c0 p0]|] eqn:SF; [|discriminate].
  destruct (strip10 20 c0 p0) as [c p] eqn:ST. injection H as <- <-.
  pose proof (rt_shift_range q e Hq53) as Hs. fold shift in Hs.
  pose proof (rt_M_range q e Hq53) as HM. fold shift in HM.
  pose proof (rt_P2_pos s) as Hsc. pose proof (rt_N2_pos s) as Hden.
  assert (HX : X = 4 * (Zpos q * 2 ^ shift)) by (unfold X; ring).
  assert (HLO : 0 < LO < X) by (unfold LO; destruct (Zpos q =? 1); lia).
  destruct (rt_search_sound _ _ _ _ _ _ _ _ _ _ _ _ _ HLO Hsc Hden SF ST) as [Hin Hc].
  exists c, p. split; [exact Hc|]. split; [reflexivity|]. split; [reflexivity|]. split.
  { (* the range of the decimal exponent, from the bit lengths *)
    pose proof (rt_dec_exponent_range _ _ _ DE) as Hk. cbv zeta in Hk.
    pose proof (rt_shortest_from_p _ _ _ _ _ _ _ _ _ _ SF) as Hp0. pose proof (rt_strip10_p _ _ _ _ _ ST) as Hp.
    assert (Ha : 0 <= Z.log2 (X * rt_P2 s) < 955).
    { split; [apply Z.log2_nonneg|]. apply Z.log2_lt_pow2; [apply Z.mul_pos_pos; lia|].
      assert (rt_P2 s <= 2 ^ 900) by (apply Z.pow_le_mono_r; unfold s; lia).
      assert (X < 2 ^ 55) by (rewrite HX; change (2 ^ 55) with (4 * 2 ^ 53); lia).
      replace 955 with (55 + 900) by lia. rewrite Z.pow_add_r by lia.
      set (T := 2 ^ 900) in *. set (U := 2 ^ 55) in *.
      assert (X * rt_P2 s <= X * T) by (apply Z.mul_le_mono_nonneg_l; lia).
      assert (X * T < U * T) by (apply Z.mul_lt_mono_pos_r; lia). lia. }
    assert (Hb : 0 <= Z.log2 (rt_N2 s) <= 1054).
    { unfold rt_N2, rt_up. rewrite Z.log2_pow2 by lia. unfold s. lia. }
    lia. }
  intros neg n d Hn0 Hd0 Efr.
  unfold in_interval in Hin. apply andb_prop in Hin as [A B]. rewrite rt_scaled_is_cmp in A, B.
  rewrite <- (rt_cmp_frac_eq n d _ _ LO s Hd0 (rt_up_pos 10 p ltac:(lia)) Efr) in A.
  rewrite <- (rt_cmp_frac_eq n d _ _ (X + 2) s Hd0 (rt_up_pos 10 p ltac:(lia)) Efr) in B.
  apply (rt_round_interval q e n d Hodd Hq53 He Hn0 Hd0).
  - unfold rt_LO, rt_incl. fold shift. change (e - shift - 2) with s.
    replace (if Zpos q =? 1 then 4 * (Zpos q * 2 ^ shift) - 1 else 4 * (Zpos q * 2 ^ shift) - 2) with LO by (unfold LO; rewrite HX; reflexivity).
    exact A.
  - unfold rt_HI, rt_incl. fold shift. change (e - shift - 2) with s.
    replace (4 * (Zpos q * 2 ^ shift) + 2) with (X + 2) by lia. exact B.
Qed.
