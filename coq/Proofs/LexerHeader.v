(* Progress lemma for lexHeaderParam.  The type scan remembers lastNonSpace and rewinds to it, so
   the white space between the type and the closing `=` or `}` is read twice: once by the scan
   and once by the skipSpace that follows.  To bound the work by the input consumed one has to
   know that skipSpace really moves over that stretch again; [spaces_between] records what the
   scan saw there. *)
From Soy Require Import Model.Bytes Model.Utf8 Model.Outcome Model.Token Generated.Tables Model.Lexer Proofs.LexerPrim Proofs.LexerStates.
From Coq Require Import ZifyBool Lia.
Open Scope Z_scope.

Section Header.
Variable uni_letter uni_digit : Z -> bool.
Hypothesis letter_eof : uni_letter (-1) = false.
Hypothesis digit_eof : uni_digit (-1) = false.
Variable inp : bstr.
Notation ilen := (Z.of_nat (length inp)).
Variable base : Z.
Hypothesis base_nonneg : 0 <= base.
Notation inv := (inv inp base).
Notation loop_post := (loop_post inp base).
Notation lim := (Z.to_N (base + ilen)).

(* the rune next() reads at byte offset q *)
Definition rune_at (q : Z) : Z :=
  if ilen <=? q then eof else Z.of_N (fst (decode_rune (drop (Z.to_nat q) inp))).

Lemma next_rune_at l : 0 <= l_pos l ->
  okp (next inp ilen l)
      (fun '(r, l') => (exists w, l' = scanned l (l_pos l + w) w (l_ticks l + 1) /\ read inp l r w) /\ r = rune_at (l_pos l)).
Proof.
  intros Hp. pose proof (next_read inp l Hp) as H. unfold rune_at. unfold next in *.
  destruct (ilen <=? l_pos l); [split; [exact H|reflexivity]|].
  destruct (l_pos l <? 0); [exact H|].
  destruct (decode_rune (drop (Z.to_nat (l_pos l)) inp)) as [r w]. split; [exact H|reflexivity].
Qed.

Definition spaces_between (a b : Z) : Prop := forall q, a <= q < b -> gen_isSpace (rune_at q) = true.

Lemma isSpace_isSpaceEOL r : gen_isSpace r = true -> gen_isSpaceEOL r = true.
Proof. unfold gen_isSpaceEOL. intros ->. reflexivity. Qed.

(* skipSpace over a stretch known to be white space gets to its end *)
Lemma skip_space_loop_spaces fuel : forall l b, 0 <= l_pos l <= b /\ b <= ilen -> spaces_between (l_pos l) b ->
  (Z.to_nat (ilen - l_pos l) < fuel)%nat ->
  okp (skip_space_loop inp ilen fuel l)
      (fun l' => exists p w t, l' = scanned l p w t /\
         0 <= w /\ b <= p - w /\ p <= ilen /\ l_ticks l < t <= l_ticks l + (p - w - l_pos l) + 1).
Proof.
  induction fuel as [|f IH]; intros l b Hp Hs Hf; [lia|].
  destruct (Z_lt_le_dec (l_pos l) b) as [Hlt|Hge].
  2:{ eapply okp_weaken; [apply skip_space_loop_spec; [lia|exact Hf]|].
      intros l' (p & w & t & -> & H). exists p, w, t. split; [reflexivity|lia]. }
  cbn [skip_space_loop].
  eapply okp_bind; [apply next_rune_at; lia|]. intros [r l1] [(w & -> & H) Hr]. unfold read in H.
  pose proof (Hs (l_pos l) (conj (Z.le_refl _) Hlt)) as Hsp. rewrite <- Hr in Hsp.
  rewrite (isSpace_isSpaceEOL _ Hsp). apply isSpace_nonneg in Hsp.
  eapply okp_weaken; [apply (IH _ b); [arith|intros q Hq; apply Hs; revert Hq; arith|arith]|].
  intros l2 (p & w2 & t & -> & H2). lcbn in H2. exists p, w2, t. split; [reflexivity|lia].
Qed.

(* the type scan: inl = the error return; inr (lastNonSpace, state after reading `=` or `}`) *)
Definition header_post (lns : Z) (l : lx) (r : lstate * lx + Z * lx) : Prop :=
  match r with
  | inl e => loop_post 2 l e
  | inr (lns', l1) => exists p t, l1 = scanned l p 1 t /\
      (lns <= lns' /\ lns' + 1 <= p /\ l_pos l + 1 <= p <= ilen /\ l_ticks l <= t <= l_ticks l + (p - l_pos l)) /\
      spaces_between lns' (p - 1)
  end.

Lemma header_type_loop_ok fuel : forall lns l, 0 <= l_start l <= lns /\ lns <= l_pos l <= ilen ->
  items_ok lim false (l_out l) ->
  spaces_between lns (l_pos l) -> (Z.to_nat (ilen - l_pos l) < fuel)%nat ->
  okp (header_type_loop inp ilen base fuel lns l) (header_post lns l).
Proof.
  induction fuel as [|f IH]; intros lns l Hw Hit Hs Hf; [lia|]. cbn [header_type_loop].
  eapply okp_bind; [apply next_rune_at; lia|]. intros [ch l1] [(w & -> & H) Hr]. unfold read in H.
  apply okp_if; intros E1.
  - assert (w = 1) as -> by lia. eexists _, _. split; [reflexivity|]. split; [lia|].
    intros q Hq. apply Hs. lia.
  - apply okp_if; intros E2.
    + eapply okp_bind; [apply (errorf_lands inp base base_nonneg 2 _ l); [assumption|arith]|]. intros e He. exact He.
    + eapply okp_weaken; [apply IH|].
      * destruct (gen_isSpace ch); cbn [negb]; arith.
      * assumption.
      * destruct (gen_isSpace ch) eqn:E3; cbn [negb]; intros q Hq; lcbn in Hq; [|lia].
        destruct (Z.eq_dec q (l_pos l)) as [->|Hne]; [rewrite <- Hr; exact E3|].
        apply Hs. apply isSpace_nonneg in E3. lia.
      * arith.
      * intros [e|[lns' l2]]; [apply loop_post_mono; arith|]. intros (p & t & -> & H2 & Hs2).
        exists p, t. split; [reflexivity|]. split; [|exact Hs2].
        destruct (gen_isSpace ch); cbn [negb] in H2; revert H2; arith.
Qed.

(* from the type scan to the end of lexHeaderParam, inside a state function entered at l0 *)
Lemma header_tail_ok B l0 l : items_ok lim false (l_out l) ->
  affords inp B 30 l0 l /\ l_start l = l_pos l ->
  okp (r <- header_type_loop inp ilen base (loop_fuel ilen l) (l_pos l) l ;;
       match r with
       | inl e => Ok e
       | inr (lns, l9') =>
           l10 <- emit inp ilen base itemHeaderParamType (set_pos l9' lns) ;;
           l11 <- skip_space inp ilen l10 ;;
           Ok (LInsideTag, l11)
       end) (loop_post B l0).
Proof.
  intros Hit H.
  eapply okp_bind; [apply header_type_loop_ok; [arith|exact Hit|intros q Hq; lia|apply loop_fuel_ok; arith]|].
  intros [e|[lns l9]]; [apply loop_post_mono; arith|]. intros (p & t & -> & H9 & Hs9). hstep.
  unfold skip_space. apply okp_assoc.
  eapply okp_bind; [apply (skip_space_loop_spaces _ _ (p - 1)); [arith|exact Hs9|apply loop_fuel_ok; arith]|].
  intros l11 (p' & w' & t' & -> & H11). lcbn in H11. cbn [bind]. land.
Qed.

Lemma lex_header_param_ok l : inv LHeaderParam l ->
  okp (lex_header_param uni_letter uni_digit inp ilen base l) (loop_post 12 l).
Proof.
  intros ((Hs & Hp) & Hit & _). unfold lex_header_param. hstep.
  apply okp_if; intros E; [land|]. apply Bool.negb_false_iff in E. apply is_prefix_length in E.
  unfold header_kw_len. set (kw := Z.of_nat (length header_param_kw)) in *.
  assert (Hkw : 0 <= kw <= ilen - l_pos l) by (unfold kw; lia). cbv zeta.
  eapply okp_bind; [apply next_read; arith|]. intros [q l1] (w & -> & Hq). unfold read in Hq. hintro Hq.
  (* `@param?` or `@param`: either way the keyword is sent *)
  eapply okp_bind with (P := fun l2 => exists it p w2, l2 = sent it (scanned l p w2 (l_ticks l + 1)) /\
                                 items_ok lim false (it :: l_out l) /\ l_pos l + kw <= p <= ilen).
  { apply okp_if; intros Eq; (eapply okp_weaken; [apply emit_plain; [reflexivity|arith|assumption]|]);
      intros l2 (it & -> & Hi); eexists it, _, _; (split; [reflexivity|split; [exact Hi|arith]]). }
  intros l2 (it & p & w2 & -> & Hi & H2). hstep.
  eapply okp_bind; [apply (alnum_loop_spec _ _ letter_eof digit_eof); [arith|apply loop_fuel_ok; arith]|].
  intros l4 (p4 & w4 & t4 & -> & H4). lcbn in H4. hstep. hstep. hstep.
  apply okp_if; intros Ec; [land|]. hstep. hstep.
  apply header_tail_ok; [assumption|arith].
Qed.

End Header.
