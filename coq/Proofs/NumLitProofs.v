(* NumLit.parse_float (the exact path) is a special case of NumLit.parse_float_round (correct rounding):
   a decimal literal whose value is exactly a float64 of Num.mk_fl's window is rounded to itself.
   The arithmetic vocabulary of that proof (podd, pw2, strip2_spec, ratio_exp ...) is what
   the Proofs/FloatRt*.v files import this file for. *)
From Soy Require Import Model.Bytes Model.Num Model.NumLit.
From Coq Require Import ZifyBool Lia.
Open Scope Z_scope.

(* split_float after the sign, and its inner function, by name *)
Definition split_after_frac (neg : bool) (ip fp s3 : bstr) : option float_lit :=
  match s3 with
  | [] => Some {| lit_neg := neg; lit_int := ip; lit_frac := fp; lit_eneg := false; lit_exp := [] |}
  | 101%N :: s4 =>
      let '(eneg, s5) := match s4 with 43%N :: r => (false, r) | 45%N :: r => (true, r) | _ => (false, s4) end in
      let '(ex, s6) := span_digits s5 in
      match ex, s6 with
      | _ :: _, [] => Some {| lit_neg := neg; lit_int := ip; lit_frac := fp; lit_eneg := eneg; lit_exp := ex |}
      | _, _ => None
      end
  | _ => None
  end.
Definition split_rest (neg : bool) (s1 : bstr) : option float_lit :=
  let '(ip, s2) := span_digits s1 in
  match ip with
  | [] => None
  | _ =>
      match s2 with
      | 46%N :: s3 => let '(fp, s4) := span_digits s3 in match fp with [] => None | _ => split_after_frac neg ip fp s4 end
      | _ => split_after_frac neg ip [] s2
      end
  end.
Lemma split_float_unfold s :
  split_float s = let '(neg, s1) := match s with 45%N :: r => (true, r) | _ => (false, s) end in split_rest neg s1.
Proof. reflexivity. Qed.

Definition podd (q : positive) : Prop := match q with xO _ => False | _ => True end.

Fixpoint pw2 (t : nat) (q : positive) : positive := match t with O => q | S t' => xO (pw2 t' q) end.

Lemma strip2_pow (q : positive) (t : nat) (e : Z) : podd q -> strip2 (pw2 t q) e = (q, e + Z.of_nat t).
Proof.
  intros Hq. revert e. induction t as [|t IH]; intros e.
  - cbn [pw2]. destruct q; cbn [strip2]; try contradiction; f_equal; lia.
  - cbn [pw2 strip2]. rewrite IH. f_equal. lia.
Qed.

Lemma iter_xO_val (q : positive) (t : nat) : Zpos (pw2 t q) = Zpos q * 2 ^ Z.of_nat t.
Proof.
  induction t as [|t IH]; [cbn; lia|]. cbn [pw2]. rewrite Pos2Z.inj_xO, IH.
  replace (Z.of_nat (S t)) with (Z.of_nat t + 1) by lia. rewrite Z.pow_add_r by lia. lia.
Qed.

Lemma strip2_spec (p : positive) : forall e, exists q t, strip2 p e = (q, e + Z.of_nat t) /\ podd q /\ p = pw2 t q.
Proof.
  induction p as [p IH|p IH|]; intros e.
  - exists (xI p), 0%nat. cbn. repeat split. f_equal. lia.
  - destruct (IH (e + 1)) as (q & t & H1 & H2 & H3). exists q, (S t). cbn [strip2 pw2]. rewrite H1. repeat split; auto.
    + f_equal. lia.
    + rewrite <- H3. reflexivity.
  - exists xH, 0%nat. cbn. repeat split. f_equal. lia.
Qed.

Lemma pow2_pos e : 0 < 2 ^ e \/ e < 0.
Proof. destruct (Z.ltb_spec e 0); [right; lia|left; apply Z.pow_pos_nonneg; lia]. Qed.

(* a^(p/q) <= b gives a^k < b^n whenever k * q < n * p: compare the p-th powers *)
Lemma pow_root_lt a b p q k n :
  0 < a -> 1 < b -> 0 < p -> 0 <= q -> a ^ p <= b ^ q -> 0 <= k -> k * q < n * p -> a ^ k < b ^ n.
Proof.
  intros Ha Hb Hp Hq H Hk Hkn. assert (Hn : 0 <= n) by nia.
  apply (Z.pow_lt_mono_l_iff _ _ p); [apply Z.pow_nonneg; lia|apply Z.pow_nonneg; lia|exact Hp|].
  rewrite <- !Z.pow_mul_r, (Z.mul_comm k), Z.pow_mul_r by lia.
  apply Z.le_lt_trans with ((b ^ q) ^ k).
  - apply Z.pow_le_mono_l. split; [apply Z.pow_nonneg; lia|exact H].
  - rewrite <- Z.pow_mul_r by lia. apply Z.pow_lt_mono_r; lia.
Qed.

(* 59/196 < log10 2 < 28/93 *)
Lemma pow10_lt_pow2 k n : 0 <= k -> 196 * k < 59 * n -> 10 ^ k < 2 ^ n.
Proof. intros. apply (pow_root_lt 10 2 59 196); [lia|lia|lia|lia|vm_compute; discriminate|lia|lia]. Qed.
Lemma pow2_lt_pow10 n k : 0 <= n -> 28 * n < 93 * k -> 2 ^ n < 10 ^ k.
Proof. intros. apply (pow_root_lt 2 10 93 28); [lia|lia|lia|lia|vm_compute; discriminate|lia|lia]. Qed.

Lemma scale_den_pos d ef : 0 < d -> 0 < scale_den d ef.
Proof. intros Hd. unfold scale_den. destruct (Z.leb_spec 0 ef); [|exact Hd]. apply Z.mul_pos_pos; [exact Hd|apply Z.pow_pos_nonneg; lia]. Qed.

(* the exponent round_ratio settles on, and its last step: a quotient q 2^t with q odd is the float q 2^(e+t) *)
Definition ratio_exp (n d : Z) : Z :=
  let e2 := Z.max (Z.log2 n - Z.log2 d - 53) (-1074) in
  if two53 <=? floor_div_pow2 n d e2 then e2 + 1 else e2.

Lemma round_ratio_pow2 neg n d (q : positive) t :
  podd q -> 0 <= t -> round_div_pow2 n d (ratio_exp n d) = Zpos q * 2 ^ t ->
  Z.log2 (Zpos q) + t + ratio_exp n d < 1024 ->
  round_ratio neg n d = FRVal (FFin (if neg then Zneg q else Zpos q) (ratio_exp n d + t)).
Proof.
  intros Hodd Ht HK Hr. unfold round_ratio. cbv zeta. fold (ratio_exp n d). rewrite HK.
  rewrite <- (Z2Nat.id t Ht), <- iter_xO_val. cbv beta iota.
  rewrite iter_xO_val, Z.log2_mul_pow2, Z2Nat.id by lia.
  replace (1024 <=? t + Z.log2 (Zpos q) + ratio_exp n d) with false by lia.
  rewrite (strip2_pow q _ _ Hodd), Z2Nat.id by lia. reflexivity.
Qed.

Section Exact.
Variable q : positive.
Variables e n d : Z.
Hypothesis Hodd : podd q.
Hypothesis Hn : 0 < n.
Hypothesis Hd : 0 < d.
Hypothesis Hrel : n * 2 ^ (Z.max 0 (- e)) = Zpos q * 2 ^ (Z.max 0 e) * d.

Lemma scale_exact ef : ef <= e -> scale_num n ef = Zpos q * 2 ^ (e - ef) * scale_den d ef.
Proof.
  intros Hle. unfold scale_num, scale_den. destruct (Z.leb_spec 0 ef) as [H0|H0].
  - replace (Z.max 0 (- e)) with 0 in Hrel by lia. replace (Z.max 0 e) with e in Hrel by lia.
    rewrite Z.pow_0_r, Z.mul_1_r in Hrel. rewrite Hrel.
    replace e with ((e - ef) + ef) at 1 by lia. rewrite Z.pow_add_r by lia. ring.
  - destruct (Z.leb_spec 0 e) as [He|He].
    + replace (Z.max 0 (- e)) with 0 in Hrel by lia. replace (Z.max 0 e) with e in Hrel by lia.
      rewrite Z.pow_0_r, Z.mul_1_r in Hrel. rewrite Hrel.
      replace (e - ef) with (e + - ef) by lia. rewrite Z.pow_add_r by lia. ring.
    + replace (Z.max 0 (- e)) with (- e) in Hrel by lia. replace (Z.max 0 e) with 0 in Hrel by lia.
      rewrite Z.pow_0_r, Z.mul_1_r in Hrel.
      replace (- ef) with (- e + (e - ef)) by lia. rewrite Z.pow_add_r by lia.
      rewrite Z.mul_assoc, Hrel. ring.
Qed.

Lemma floor_exact ef : ef <= e -> floor_div_pow2 n d ef = Zpos q * 2 ^ (e - ef).
Proof.
  intros Hle. unfold floor_div_pow2. rewrite (scale_exact ef Hle). apply Z.div_mul.
  pose proof (scale_den_pos d ef Hd). lia.
Qed.

Lemma round_div_exact ef : ef <= e -> round_div_pow2 n d ef = Zpos q * 2 ^ (e - ef).
Proof.
  intros Hle. unfold round_div_pow2. cbv zeta. rewrite (scale_exact ef Hle).
  pose proof (scale_den_pos d ef Hd) as Hp.
  rewrite Z.mod_mul by lia. rewrite Z.div_mul by lia.
  replace (2 * 0 <? scale_den d ef) with true by lia. reflexivity.
Qed.

Lemma log_window : Z.log2 (Zpos q) + e <= Z.log2 n - Z.log2 d <= Z.log2 (Zpos q) + e + 1.
Proof.
  set (A := Z.max 0 (- e)) in *. set (B := Z.max 0 e) in *.
  assert (HA : 0 <= A) by (unfold A; lia). assert (HB : 0 <= B) by (unfold B; lia). assert (HBA : B - A = e) by (unfold A, B; lia).
  assert (E1 : Z.log2 (n * 2 ^ A) = A + Z.log2 n) by (apply Z.log2_mul_pow2; lia).
  assert (E2 : Z.log2 (Zpos q * 2 ^ B * d) = B + Z.log2 (Zpos q * d)).
  { replace (Zpos q * 2 ^ B * d) with (Zpos q * d * 2 ^ B) by ring. apply Z.log2_mul_pow2; [|lia]. apply Z.mul_pos_pos; lia. }
  pose proof (Z.log2_mul_below (Zpos q) d ltac:(lia) Hd) as L1.
  pose proof (Z.log2_mul_above (Zpos q) d ltac:(lia) ltac:(lia)) as L2.
  rewrite Hrel in E1. lia.
Qed.

Theorem round_exact neg :
  Zpos q < two53 -> -1074 <= e -> Z.log2 (Zpos q) + e < 1024 ->
  round_ratio neg n d = FRVal (FFin (if neg then Zneg q else Zpos q) e).
Proof.
  intros Hq He Hr. pose proof log_window as Hw.
  assert (HL : Z.log2 (Zpos q) < 53) by (apply Z.log2_lt_pow2; [lia|exact Hq]).
  assert (Hef : ratio_exp n d <= e).
  { unfold ratio_exp. set (e2 := Z.max (Z.log2 n - Z.log2 d - 53) (-1074)).
    assert (He2 : e2 <= e) by (unfold e2; lia). rewrite (floor_exact e2 He2).
    destruct (Z.leb_spec two53 (Zpos q * 2 ^ (e - e2))) as [H|H]; [|exact He2].
    destruct (Z.eq_dec e e2) as [E|E]; [|lia]. rewrite E, Z.sub_diag, Z.pow_0_r in H. lia. }
  pose proof (round_ratio_pow2 neg n d q (e - ratio_exp n d) Hodd ltac:(lia) (round_div_exact _ Hef) ltac:(lia)) as R.
  replace (ratio_exp n d + (e - ratio_exp n d)) with e in R by lia. exact R.
Qed.
End Exact.

Lemma mk_fl_round (s : bool) (p : positive) (e0 n d : Z) f :
  mk_fl (if s then Zneg p else Zpos p) e0 = Some f -> 0 < n -> 0 < d ->
  n * 2 ^ (Z.max 0 (- e0)) = Zpos p * 2 ^ (Z.max 0 e0) * d ->
  round_ratio s n d = FRVal f.
Proof.
  intros Hm Hn Hd Hrel.
  destruct (strip2_spec p e0) as (q & t & Hs & Hq & Hp).
  assert (Hv : Zpos p = Zpos q * 2 ^ Z.of_nat t) by (rewrite Hp; apply iter_xO_val).
  assert (Hf : Zpos q < two53 /\ -1000 < e0 + Z.of_nat t < 900 /\ f = FFin (if s then Zneg q else Zpos q) (e0 + Z.of_nat t)).
  { destruct s; cbn [mk_fl] in Hm; rewrite Hs in Hm;
    destruct ((Zpos q <? two53) && (-1000 <? e0 + Z.of_nat t) && (e0 + Z.of_nat t <? 900)) eqn:C; try discriminate;
    injection Hm as <-; repeat split; lia. }
  destruct Hf as (Hq53 & He & ->).
  set (e' := e0 + Z.of_nat t) in *.
  assert (P2 : 0 < 2 ^ Z.of_nat t) by (apply Z.pow_pos_nonneg; lia).
  apply round_exact; auto; try lia.
  - rewrite Hv in Hrel. destruct (Z.leb_spec 0 e0) as [H0|H0].
    + replace (Z.max 0 (- e0)) with 0 in Hrel by lia. replace (Z.max 0 e0) with e0 in Hrel by lia.
      replace (Z.max 0 (- e')) with 0 by lia. replace (Z.max 0 e') with e' by lia.
      rewrite Hrel. unfold e'. rewrite (Z.add_comm e0), Z.pow_add_r by lia. ring.
    + replace (Z.max 0 (- e0)) with (- e0) in Hrel by lia. replace (Z.max 0 e0) with 0 in Hrel by lia.
      rewrite Z.pow_0_r, Z.mul_1_r in Hrel.
      destruct (Z.leb_spec 0 e') as [H1|H1].
      * replace (Z.max 0 (- e')) with 0 by lia. replace (Z.max 0 e') with e' by lia. rewrite Z.pow_0_r, Z.mul_1_r.
        assert (P3 : 0 < 2 ^ (- e0)) by (apply Z.pow_pos_nonneg; lia).
        apply (Z.mul_reg_r _ _ (2 ^ (- e0))); [lia|]. rewrite Hrel.
        replace (Z.of_nat t) with (e' + - e0) by (unfold e'; lia). rewrite Z.pow_add_r by lia. ring.
      * replace (Z.max 0 (- e')) with (- e') by lia. replace (Z.max 0 e') with 0 by lia. rewrite Z.pow_0_r, Z.mul_1_r.
        apply (Z.mul_reg_r _ _ (2 ^ Z.of_nat t)); [lia|].
        replace (n * 2 ^ (- e') * 2 ^ Z.of_nat t) with (n * 2 ^ (- e0)).
        { rewrite Hrel. ring. }
        replace (- e0) with (- e' + Z.of_nat t) by (unfold e'; lia). rewrite Z.pow_add_r by lia. ring.
  - pose proof (Z.log2_lt_pow2 (Zpos q) 53 ltac:(lia)) as HL. unfold two53 in Hq53.
    assert (Z.log2 (Zpos q) < 53) by (apply HL; exact Hq53). lia.
Qed.

(* the exact path of NumLit.parse_float is a special case of the correctly rounded conversion *)
Theorem parse_float_exact_is_rounded s f : parse_float s = Some f -> parse_float_round s = FRVal f.
Proof.
  unfold parse_float, parse_float_round, float_of_lit. destruct (split_float s) as [l|]; [|discriminate]. cbv zeta.
  set (ds := lit_int l ++ lit_frac l). set (dv := dec_val ds 0).
  destruct (N.eqb_spec dv 0) as [E0|E0]; [intros H; injection H as <-; reflexivity|].
  destruct (4 <? N.of_nat (length (lit_exp l)))%N; [discriminate|].
  set (ex := Z.of_N (dec_val (lit_exp l) 0)).
  set (k := (if lit_eneg l then - ex else ex) - Z.of_nat (length (lit_frac l))).
  destruct (Z.ltb_spec 400 (Z.abs k)) as [Hk|Hk]; [discriminate|].
  replace (400 <? k) with false by lia.
  replace (k + Z.of_nat (length ds) <? -400) with false by lia.
  assert (Hd : 0 < Z.of_N dv) by lia.
  destruct (Z.leb_spec 0 k) as [Hk0|Hk0].
  - (* integer value *)
    assert (P10 : 0 < 10 ^ k) by (apply Z.pow_pos_nonneg; lia).
    assert (Hpos : 0 < Z.of_N dv * 10 ^ k) by (apply Z.mul_pos_pos; lia).
    destruct (Z.of_N dv * 10 ^ k) as [|p|p] eqn:Ep; try lia.
    intros H. apply (mk_fl_round (lit_neg l) p 0); [ | lia | lia | cbn; lia].
    destruct (lit_neg l); [|rewrite Ep in H; exact H].
    replace (- Z.of_N dv * 10 ^ k) with (Zneg p) in H by (rewrite Z.mul_opp_l, Ep; reflexivity). exact H.
  - (* a fraction with a power of five dividing the digits *)
    set (j := - k) in *. assert (Hj : 0 < j) by (unfold j; lia).
    assert (P5 : 0 < 5 ^ j) by (apply Z.pow_pos_nonneg; lia).
    assert (P2 : 0 < 2 ^ j) by (apply Z.pow_pos_nonneg; lia).
    assert (P10 : 10 ^ j = 5 ^ j * 2 ^ j) by (rewrite <- Z.pow_mul_l; reflexivity).
    set (m := if lit_neg l then - Z.of_N dv else Z.of_N dv).
    destruct (Z.eqb_spec (m mod 5 ^ j) 0) as [Hm|Hm]; [|discriminate].
    assert (Hdm : Z.of_N dv mod 5 ^ j = 0).
    { unfold m in Hm. destruct (lit_neg l); [|exact Hm]. apply Z.mod_opp_l_z in Hm; [|lia]. rewrite Z.opp_involutive in Hm. exact Hm. }
    assert (Hdiv : Z.of_N dv = 5 ^ j * (Z.of_N dv / 5 ^ j)) by (apply Z.div_exact; lia).
    assert (Hqpos : 0 < Z.of_N dv / 5 ^ j) by nia.
    assert (Em : m / 5 ^ j = if lit_neg l then - (Z.of_N dv / 5 ^ j) else Z.of_N dv / 5 ^ j).
    { unfold m. destruct (lit_neg l); [|reflexivity]. apply Z.div_opp_l_z; lia. }
    rewrite Em. destruct (Z.of_N dv / 5 ^ j) as [|p|p] eqn:Ep; try lia.
    intros H. assert (Hdd : 0 < 10 ^ (- k)) by (apply Z.pow_pos_nonneg; lia).
    apply (mk_fl_round (lit_neg l) p k); [destruct (lit_neg l); exact H | lia | exact Hdd | ].
    replace (Z.max 0 (- k)) with j by (unfold j; lia). replace (Z.max 0 k) with 0 by lia. rewrite Z.pow_0_r, Z.mul_1_r.
    fold j. rewrite P10. rewrite Hdiv at 1. ring.
Qed.

(* so newValueNode's float case is the correctly rounded conversion and nothing else: the exact path that
   Model/ExprParser.v tries first (C17's round-trip proofs compute with it) never disagrees *)
From Soy Require Import Model.Ast Model.Token Model.ExprParser Generated.Tables.
Lemma float_value_node (w : N -> pst -> presult node) (lf : nat) (t : tok) (st : pst) :
  t_typ t = pk_itemFloat ->
  new_value_node w lf t st =
  match parse_float_round (t_val t) with
  | FRVal f => POk (NFloat (t_pos t) f) st
  | FRRange | FRSyntax => p_errorf c_number st
  end.
Proof.
  intros Ht. unfold new_value_node. rewrite Ht.
  change (pk_itemFloat =? pk_itemNull)%N with false. change (pk_itemFloat =? pk_itemBool)%N with false.
  change (pk_itemFloat =? pk_itemInteger)%N with false. change (pk_itemFloat =? pk_itemFloat)%N with true. cbv iota.
  destruct (parse_float (t_val t)) as [f|] eqn:E; [|destruct (parse_float_round (t_val t)); reflexivity].
  rewrite (parse_float_exact_is_rounded _ _ E). reflexivity.
Qed.
