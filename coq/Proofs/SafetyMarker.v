(* C06: the error texts of the plain walker.  Every run of [Interp.walk] that ends in [Err e] ends with one
   of the finitely many texts of [walker_texts] -- the constants Model/Interp.v passes to [fail] plus the
   texts of the pure helpers it lifts -- and the marker [e_capped] of the depth instrument
   (Model/InterpSafety.v section 4) is not among them.  So "the plain walker answered with the marker" never
   happens, and [walk_answer_has_depth] needs only "the fuel sufficed":

     walk_answer_has_depth_nofuel :
       depth_ st = 0 -> fst (walk cf f n st) <> OutOfFuel -> run_depth_le cf f n st.

   Proved with Proofs/InterpSubE.v (the node-indexed walker principle whose [fail] obligation is restricted
   to the walker's own texts: a predicate on WHICH text a run ends with is not a [walker_logic]). *)
From Coq Require Import Lia ZifyBool List.
Import ListNotations.
From Soy Require Import Model.Bytes Model.Num Model.Values Model.Outcome Model.Ast
  Model.Escape Model.Directives Model.Print Generated.Tables Model.Interp Model.InterpSafety
  Spec.Safety Proofs.ValueProofs Proofs.InterpLogic Proofs.InterpSub Proofs.InterpSubE
  Proofs.SafetyPure Proofs.SafetyDepth.
Open Scope N_scope.

(* the walker's own texts and those of the pure helpers *)
Definition walker_texts : list bstr :=
  walker_fail_texts ++ [ Directives.e_type; Directives.e_index; Directives.e_notmodelled; Values.e_undef_string ].
Definition walker_text (e : bstr) : bool := existsb (bstr_eqb e) walker_texts.

Lemma walker_fail_text_text e : walker_fail_text e = true -> walker_text e = true.
Proof.
  unfold walker_fail_text, walker_text, walker_texts. rewrite existsb_app. intros ->. reflexivity.
Qed.

(* the finite check: the marker is none of them *)
Lemma walker_text_not_capped : walker_text e_capped = false.
Proof. vm_compute. reflexivity. Qed.

(* "an error, if any, carries one of the walker's texts" *)
Definition et_ok {A} (o : outcome A) : Prop :=
  match o with Err e => walker_text e = true | _ => True end.

(* the finite check: the texts of the pure helpers (Proofs/SafetyPure.v) are among them *)
Lemma pure_texts_walker : forallb walker_text pure_texts = true.
Proof. vm_compute. reflexivity. Qed.

Lemma et_bind {A B} (x : outcome A) (f : A -> outcome B) :
  et_ok x -> (forall v, et_ok (f v)) -> et_ok (bind x f).
Proof. destruct x; cbn; try tauto. intros _ H. apply H. Qed.

Lemma pans_et lax {A} (o : outcome A) : pans lax o -> et_ok o.
Proof.
  destruct o as [x|e|e| | |]; try (intros _; exact I). unfold pans, et_ok, pure_text. rewrite existsb_exists. intros (t & Hin & Ht).
  destruct (bstr_eqb_spec e t) as [->|]; [|discriminate]. exact (proj1 (forallb_forall _ _) pure_texts_walker t Hin).
Qed.

Lemma et_pure_sites : pure_sites_sube (@et_ok).
Proof.
  constructor.
  - intros. apply (pans_et False), pans_arith.
  - intros. apply (pans_et False), pans_compare.
  - intros. apply (pans_et False), pans_value_string.
  - intros. apply (pans_et False), pans_print_writes.
  - intros name ar vs H. apply (pans_et False). eapply pans_apply_func_table; eauto.
Qed.

Definition et_spec {A} (m : M A) : Prop := forall st, et_ok (fst (m st)).

Lemma ets_ret {A} (x : A) : et_spec (ret x).
Proof. intros st. exact I. Qed.
Lemma ets_modify f : et_spec (modify f).
Proof. intros st. exact I. Qed.
Lemma ets_get : et_spec get.
Proof. intros st. exact I. Qed.
Lemma ets_fail {A} e : walker_fail_text e = true -> et_spec (@fail A e).
Proof. intros H st. cbn. apply walker_fail_text_text. exact H. Qed.
Lemma ets_bind {A B} (m : M A) (f : A -> M B) : et_spec m -> (forall x, et_spec (f x)) -> et_spec (mbind m f).
Proof.
  intros Hm Hf st. unfold mbind. specialize (Hm st).
  destruct (m st) as [[x|e|e| | | ] s]; cbn [fst] in *; try exact I; [apply Hf | exact Hm].
Qed.
Lemma ets_get_bind {B} (f : mstate -> M B) : (forall s st, et_ok (fst (f s st))) -> et_spec (mbind get f).
Proof. intros H st. unfold mbind, get. apply H. Qed.

Theorem et_logic : walker_logic_sube (@et_spec) (@et_ok).
Proof.
  constructor.
  - intros A m m' E H st. rewrite <- E. apply H.
  - intros; apply ets_ret.
  - intros A e H. apply ets_fail. exact H.
  - intros A o H st. exact H.
  - intros; apply ets_bind; assumption.
  - intros; apply ets_modify.
  - (* write *)
    intros w st. unfold write.
    destruct (bufs st); [|exact I].
    destruct (calls_left st) as [[|k]|]; [reflexivity| |];
      (destruct (bytes_left st); [|exact I]; destruct (_ <=? _); [exact I | reflexivity]).
  - intros k v st. unfold m_set. destruct (ctx st); [reflexivity | exact I].
  - intros k st. unfold m_lookup. destruct (sc_lookup _ _); exact I.
  - intros l st. unfold fresh_list. destruct l; exact I.
  - intros l st. unfold fresh_list_or_nil. destruct l; exact I.
  - intros m st. exact I.
  - intros B f H. apply ets_get_bind. intros s st. apply H.
  - intros B f H. apply ets_get_bind. intros s st. apply H.
  - (* scoped *)
    intros m H. apply ets_bind; [apply ets_modify|]. intros _.
    apply ets_bind; [exact H|]. intros _.
    apply ets_bind; [apply ets_modify|]. intros _. apply ets_ret.
  - (* eval *)
    intros w e H. unfold eval. apply ets_get_bind. intros s0.
    apply ets_bind; [exact H|]. intros v.
    apply ets_bind; [apply ets_modify|]. intros _. apply ets_ret.
  - (* block *)
    intros w body H. unfold render_block.
    apply ets_bind; [apply ets_modify|]. intros _.
    apply ets_bind; [exact H|]. intros _.
    apply ets_get_bind. intros s.
    destruct (bufs s).
    + apply ets_fail. vm_compute. reflexivity.
    + apply ets_bind; [apply ets_modify|]. intros _. apply ets_ret.
Qed.

Lemma ets_call_enter (w : node -> M value) callee cd : et_spec (w (t_node callee)) -> et_spec (call_enter w callee cd).
Proof.
  intros H. unfold call_enter. apply ets_get_bind. intros s1.
  apply ets_bind; [apply ets_modify|]. intros _ st.
  specialize (H st). destruct (w (t_node callee) st) as [[x|e|e| | | ] s]; cbn [fst] in *; try exact I. exact H.
Qed.

(* every error of the plain walker carries one of its own texts *)
Theorem walk_err_text cf : forall f n st e, fst (walk cf f n st) = Err e -> walker_text e = true.
Proof.
  assert (H : forall f n, et_spec (walk cf f n)).
  { induction f as [|f IH]; intros n.
    - rewrite walk_O. intros st. exact I.
    - rewrite walk_S. apply (phi_walk_body_sube cf (@et_spec) (@et_ok) et_logic et_pure_sites).
      + apply ets_modify.
      + intros n' _. apply IH.
      + intros callee cd _. apply ets_call_enter. apply IH. }
  intros f n st e E. specialize (H f n st). rewrite E in H. exact H.
Qed.

(* ... so never the marker of the depth instrument *)
Theorem walk_never_capped cf f n st : fst (walk cf f n st) <> Err e_capped.
Proof.
  intros E. apply walk_err_text in E. rewrite walker_text_not_capped in E. discriminate.
Qed.

(* [walk_answer_has_depth] without its second hypothesis: a run of the walker that does not run out of fuel,
   started at call depth 0 with fuel f, stays within f nested calls *)
Theorem walk_answer_has_depth_nofuel cf f n st :
  depth_ st = 0%nat -> fst (walk cf f n st) <> OutOfFuel -> run_depth_le cf f n st.
Proof.
  intros Hst Hoof. apply walk_answer_has_depth; [exact Hst|].
  split; [exact Hoof | apply walk_never_capped].
Qed.
