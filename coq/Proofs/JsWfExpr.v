(* C14, token grammar: every expression node of an accepted file is written as
   an expression of Spec/JsSyntax.v. *)
From Soy Require Import Model.Bytes Model.Num Model.Values Model.Outcome Model.Ast Model.JsGen Generated.Tables
  Spec.JsSyntax Spec.JsShape.
From Soy Require Import Proofs.BytesBase Proofs.JsWfSplitBase Proofs.JsWfSplitNum Proofs.JsWfSplit Proofs.JsWfTail Proofs.JsWfLeaf.
From Soy Require Import Proofs.JsWfBase Proofs.JsWfFrame Proofs.JsWfMonad.
From Coq Require Import ZifyBool Lia.
Open Scope N_scope.
#[local] Arguments assoc_s {A} k l : simpl never.

Lemma text_okb_tail t ts m : text_okb t ts m = true -> tail_ok t ts m.
Proof. destruct t; [intros _; exact I|exact id]. Qed.
Ltac tail_solve := first [ exact I | reflexivity | (vm_compute; reflexivity) ].
Lemma emits_cons0 md c b m s m1 s1 m2 s2 :
  emits md [c] m s m1 s1 [] -> emits md b m1 s1 m2 s2 [] -> emits md (c :: b) m s m2 s2 [].
Proof. intros A B. exact (emits_cons md c b _ _ _ _ [] _ _ [] A B). Qed.

Ltac use_name :=
  repeat match goal with
         | H : name_ok ?g |- context [lex_name ?g] => rewrite (H : lex_name g = Some [TId g])
         | H : iname_ok ?g |- context [lex_name ?g] => rewrite (H : lex_name g = Some [tok_of_ident g])
         end.
(* one chunk whose tokens are known: a closed text, a string literal, a name with a hypothesis *)
Ltac esingle :=
  eapply emits_toks1;
  [ first [ (cbn [lex_chunk]; use_name; reflexivity) | (vm_compute; reflexivity) ]
  | first [ reflexivity | (cbn; reflexivity) ]
  | tail_solve ].
Ltac echain :=
  lazymatch goal with
  | |- emits _ [] _ _ _ _ _ => apply emits_nil
  | |- emits _ (_ :: _) _ _ _ _ _ => eapply emits_cons0; [ esingle | echain ]
  | |- emits _ (_ ++ _) _ _ _ _ _ => eapply emits_app0; [ first [ eassumption | esub ] | echain ]
  | |- _ => first [ eassumption | esub ]
  end
with esub :=
  match goal with
  | H : exprC _ ?cs _ |- emits _ ?cs _ _ _ _ _ => apply H
  | H : forall cl s, emits _ ?cs (MWant cl) s _ _ _ |- emits _ ?cs _ _ _ _ _ => apply H
  end.

(* a chunk whose only token is an identifier token (keyword or not) steps over '.' / object keys *)
Lemma tok_of_ident_cases s : (exists k, tok_of_ident s = TKw k s) \/ tok_of_ident s = TId s.
Proof. unfold tok_of_ident. destruct (assoc_s s kw_table); eauto. Qed.

From Soy Require Proofs.MsgIdProofs.
From Soy Require Import Proofs.LexTokens Proofs.LexNumbers Proofs.LexPrintMain.
Open Scope N_scope.

Lemma dec_digits_all n : forallb is_digit (dec_of_N n) = true.
Proof.
  pose proof (MsgIdProofs.dec_of_N_digits n) as H. induction H as [|c l [H1 H2] _ IH]; cbn [forallb]; [reflexivity|].
  rewrite IH, andb_true_r. apply andb_true_intro. split; apply N.leb_le; assumption.
Qed.

Lemma num_span_digits d ds : forallb is_digit (d :: ds) = true -> (d <> 48 \/ ds = []) -> num_span (d :: ds) = Some (List.length (d :: ds)).
Proof.
  intros Hd Hlead. unfold num_span. rewrite (forallb_span_all _ _ Hd), drop_whole.
  assert (Hl : match d :: ds with 48 :: d0 :: _ => negb (is_digit d0) | _ => true end = true).
  { destruct Hlead as [Hn| ->].
    - destruct d as [|p]; [reflexivity|]. repeat (destruct p as [p|p|]; try reflexivity). exfalso. apply Hn. reflexivity.
    - destruct d as [|p]; [reflexivity|]. repeat (destruct p as [p|p|]; try reflexivity). }
  rewrite Hl. reflexivity.
Qed.

Lemma all_digits_forallb ds : all_digits ds -> forallb is_digit ds = true.
Proof. unfold all_digits. induction 1 as [|c ds Hc _ IH]; cbn; [reflexivity|]. change (is_digit c) with (digit_b c). rewrite Hc. exact IH. Qed.

Lemma unsigned_pos p : unsigned_num_ok (dec_of_N (Npos p)) = true /\ is_int_text (dec_of_N (Npos p)) = true
  /\ exists d ds, dec_of_N (Npos p) = d :: ds /\ d <> 45.
Proof.
  destruct (dec_of_N_shape p) as (d & ds & E & Hd & Hnz). rewrite E. apply all_digits_forallb in Hd. split; [|split; [exact Hd|]].
  - unfold unsigned_num_ok. rewrite num_span_digits by auto. rewrite Nat.eqb_refl. cbn [forallb] in Hd. apply andb_prop in Hd. destruct Hd as [H1 _]. rewrite H1. reflexivity.
  - exists d, ds. split; [reflexivity|]. cbn [forallb] in Hd. apply andb_prop in Hd. destruct Hd as [H1 _]. intro; subst. vm_compute in H1. discriminate.
Qed.
Lemma lex_num_pos p : lex_num (dec_of_N (Npos p)) = Some [TNum (dec_of_N (Npos p))] /\ is_int_text (dec_of_N (Npos p)) = true.
Proof.
  destruct (unsigned_pos p) as (Hu & Hi & d & ds & E & Hm). split; [|exact Hi]. unfold lex_num. rewrite Hu. rewrite E.
  destruct d as [|q]; [reflexivity|]. repeat (destruct q as [q|q|]; try reflexivity). exfalso. apply Hm. reflexivity.
Qed.

Lemma lex_num_N n : lex_num (dec_of_N n) = Some [TNum (dec_of_N n)] /\ is_int_text (dec_of_N n) = true.
Proof. destruct n as [|p]; [split; reflexivity|apply lex_num_pos]. Qed.

Section Num.
Variable md : bool.
Lemma run_num x cl s : js_run md [TNum x] (MWant cl) s = Some (MHave (is_int_text x), s, []).
Proof. reflexivity. Qed.
Lemma run_neg_num x cl s : js_run md [TP PMinus; TNum x] (MWant cl) s = Some (MHave (is_int_text x), s, []).
Proof. reflexivity. Qed.
Lemma dec_tail n ts : tail_ok (dec_of_N n) ts (MHave true).
Proof.
  pose proof (MsgIdProofs.dec_of_N_nonempty n) as Hn. pose proof (dec_digits_all n) as Hd. destruct (dec_of_N n) as [|c r] eqn:E; [congruence|].
  unfold tail_ok. apply tail_okb_word; [apply digit_ident; apply last_forallb; [discriminate|exact Hd]|reflexivity|intros; reflexivity].
Qed.
Lemma neg_dec_tail n ts : tail_ok (45 :: dec_of_N n) ts (MHave true).
Proof.
  pose proof (MsgIdProofs.dec_of_N_nonempty n) as Hn. pose proof (dec_digits_all n) as Hd.
  unfold tail_ok. rewrite last_cons_ne by exact Hn. apply tail_okb_word; [apply digit_ident; apply last_forallb; assumption|reflexivity|intros; reflexivity].
Qed.
Lemma emits_num_Z z cl s : emits md [CNum (dec_of_Z z)] (MWant cl) s (MHave true) s [].
Proof.
  destruct z as [|p|p]; cbn [dec_of_Z].
  - eapply emits_toks1; [vm_compute; reflexivity|reflexivity|tail_solve].
  - destruct (lex_num_pos p) as [L I]. eapply emits_toks1; [cbn [lex_chunk]; rewrite L; reflexivity| |apply dec_tail]. rewrite run_num, I. reflexivity.
  - destruct (lex_num_pos p) as [L I]. eapply emits_toks1.
    + cbn [lex_chunk lex_num]. destruct (unsigned_pos p) as (Hu & _). rewrite Hu. reflexivity.
    + rewrite run_neg_num, I. reflexivity.
    + apply neg_dec_tail.
Qed.
Lemma emits_num_N n cl s : emits md [CNum (dec_of_N n)] (MWant cl) s (MHave true) s [].
Proof.
  destruct (lex_num_N n) as [L I]. eapply emits_toks1; [cbn [lex_chunk]; rewrite L; reflexivity| |apply dec_tail]. rewrite run_num, I. reflexivity.
Qed.
End Num.

(* the same for [reach]: single chunks by evaluation, the fragments of sub-runs by the facts in the context;
   after a fragment that may end in several modes the chain goes on from each *)
Ltac ssingle :=
  lazymatch goal with
  | |- emits _ [CText (indent_text _)] _ _ _ _ _ => apply emits_indent
  | |- emits _ [CNum (dec_of_Z _)] _ _ _ _ _ => apply emits_num_Z
  | |- emits _ [CNum (dec_of_N _)] _ _ _ _ _ => apply emits_num_N
  | |- _ => esingle
  end.
Ltac rpull H :=
  lazymatch type of H with
  | _ /\ _ => let H1 := fresh H in let H2 := fresh H in destruct H as [H1 H2]; rpull H1; rpull H2
  | exists _, _ => let x := fresh "e" in destruct H as [x H]; rpull H
  | _ \/ _ => destruct H as [H|H]; rpull H
  | at_stmt _ _ _ => unfold at_stmt in H; rpull H
  | ?a = ?c => first [ is_var a; subst a | is_var c; subst c | idtac ]
  | _ => idtac
  end.
Ltac rfrag :=
  match goal with
  | H : stmtC _ ?cs |- reach _ ?cs _ _ _ => apply (proj1 (stmtC_reach _ cs) H)
  | H : context [reach _ ?cs] |- reach _ ?cs _ _ _ => eapply H; eauto
  end.
Ltac rchain :=
  lazymatch goal with
  | |- reach _ [] _ _ _ => apply reach_nil
  | |- reach _ (_ :: _) _ _ _ => eapply reach_cons; [ssingle|rchain]
  | |- reach _ (_ ++ _) _ _ _ =>
      first [ eapply reach_step; [esub|rchain]
            | eapply reach_app; [rfrag | let H := fresh "R" in intros ? ? H; cbv beta in H; rpull H; rchain] ]
  | |- reach _ _ _ _ _ => first [ eapply reach_emits; [esub|] | rfrag ]
  end.

Ltac norm_app := rewrite <- ?app_assoc; cbn [app].

Section Expr.
Variable o : jopts.
Notation fmt := (o_fmt o).
Notation md := (is_module (o_fmt o)).

Definition expr_post0 (m : J unit) (i : bool) : Prop :=
  forall st st', scope_ok (j_scope st) -> called_ok fmt st -> m st = Ok (tt, st') ->
    exists cs, ext st st' cs /\ exprC fmt cs i /\ j_scope st' = j_scope st /\ j_buf st' = j_buf st /\ called_ok fmt st'.

(* the same, as a specification of the logic of Proofs/JsWfMonad.v *)
Notation espec m i := (forall b sc, scope_ok sc -> tr (inv fmt b sc) m (fun _ cs => exprC fmt cs i) (inv fmt b sc)).
Lemma expr_post0_tr m i : expr_post0 m i <-> espec m i.
Proof.
  split.
  - intros H b sc Hs st [] st' (<- & <- & Hk) Hr. destruct (H st st' Hs Hk Hr) as (cs & E & C & S & B & K). exists cs. repeat split; auto.
  - intros H st st' Hs Hk Hr. destruct (H _ _ Hs st tt st' (conj eq_refl (conj eq_refl Hk)) Hr) as (cs & E & C & S & B & K). exists cs. auto.
Qed.

Lemma exprC_text t ts i : text_toks t = Some ts -> text_okb t ts (MHave i) = true -> (forall cl s, js_run md ts (MWant cl) s = Some (MHave i, s, [])) -> exprC fmt [CText t] i.
Proof.
  intros L Tk R cl s. eapply emits_toks1; [|apply R|apply text_okb_tail; exact Tk]. cbn [lex_chunk]. unfold text_toks in L.
  destruct (lex_text 0 LNormal t) as [[ts' m']|]; [|discriminate]. destruct m'; try discriminate. inversion L; subst. reflexivity.
Qed.

Section Body.
Variable w : node -> J unit.
Variable fk : nat.
Definition expr_post (wf : node -> J unit) (n : node) (i : bool) : Prop := expr_post0 (wf n) i.
Hypothesis IHe : forall n i, expr_chk fmt fk n = Some i -> expr_post w n i.

Lemma IHt n i : expr_chk fmt fk n = Some i -> espec (w n) i.
Proof. intro Hc. apply expr_post0_tr. exact (IHe n i Hc). Qed.
#[local] Hint Resolve IHt : jwf.

Definition fin (st st' : jstate) (i : bool) : Prop :=
  exists cs, ext st st' cs /\ exprC fmt cs i /\ j_scope st' = j_scope st /\ j_buf st' = j_buf st /\ called_ok fmt st'.

Ltac efin := intros cl s; norm_app; echain.

Lemma binop_run op_ i s : op_ <> OElvis ->
  emits md [CText (binop_sym op_); CText t_op_mid2] (MHave i) s (MWant false) (KParen :: s) [].
Proof.
  intro Ho. destruct op_; try congruence;
    (eapply emits_block; [intro ip; cbn [render_chunks render_chunk]; reflexivity|vm_compute; reflexivity|vm_compute; reflexivity|reflexivity|reflexivity]).
Qed.

Lemma t_op op_ a c i j b sc : op_ <> OElvis -> expr_chk fmt fk a = Some i -> expr_chk fmt fk c = Some j -> scope_ok sc ->
  tr (inv fmt b sc) (jop w (binop_sym op_) a c) (fun _ cs => exprC fmt cs false) (inv fmt b sc).
Proof.
  intros Ho Ha Hc Hs. unfold jop. tgo. intros cl s. norm_app.
  eapply emits_cons0; [esingle|]. eapply emits_app0; [esub|]. eapply emits_cons0; [esingle|].
  match goal with |- emits _ (?x :: ?y :: ?r) _ _ _ _ _ => change (x :: y :: r) with ([x; y] ++ r) end.
  eapply emits_app0; [apply binop_run; exact Ho|]. echain.
Qed.

Definition okn (n : node) : bool := match expr_chk fmt fk n with Some _ => true | None => false end.
Lemma okn_some n : okn n = true -> exists i, expr_chk fmt fk n = Some i.
Proof. unfold okn. destruct (expr_chk fmt fk n); [eauto|discriminate]. Qed.

Definition after_items (m : mode) : Prop := m = MWant true \/ exists j, m = MHave j.
Lemma close_call m s : after_items m -> js_run md [TP PRPar] m (KCall :: s) = Some (MHave false, s, []).
Proof. intros [->|[j ->]]; reflexivity. Qed.
Lemma close_arr m s : after_items m -> js_run md [TP PRBrk] m (KArr :: s) = Some (MHave false, s, []).
Proof. intros [->|[j ->]]; reflexivity. Qed.

Lemma t_items l first b sc : forallb okn l = true -> scope_ok sc ->
  tr (inv fmt b sc) (list_items w first l)
    (fun _ cs => forall K s m0, K = KCall \/ K = KArr -> (if first then m0 = MWant true else exists j, m0 = MHave j) ->
       reach fmt cs m0 (K :: s) (fun m' s' => after_items m' /\ s' = K :: s)) (inv fmt b sc).
Proof.
  intros Hall Hs. revert first. induction l as [|x l IH]; intro first; cbn [list_items].
  - tgo. intros K s m0 _ Hm. apply reach_nil. split; [destruct first; [left|right]; exact Hm|reflexivity].
  - cbn [forallb] in Hall. apply andb_prop in Hall. destruct Hall as [Hx Hl]. destruct (okn_some _ Hx) as (i & Hc). specialize (IH Hl).
    tgo; intros K s m0 [->| ->] Hm; rpull Hm; cbn [app]; rchain.
Qed.

Definition after_keys (m : mode) : Prop := m = MKey true \/ exists j, m = MHave j.
Lemma close_obj m s : after_keys m -> js_run md [TP PRBrc] m (KObj :: s) = Some (MHave false, s, []).
Proof. intros [->|[j ->]]; reflexivity. Qed.

Lemma t_map_items l first b sc : forallb okn (map snd l) = true -> scope_ok sc ->
  tr (inv fmt b sc) (map_items w first l)
    (fun _ cs => forall s m0, (if first then m0 = MKey true else exists j, m0 = MHave j) ->
       reach fmt cs m0 (KObj :: s) (fun m' s' => after_keys m' /\ s' = KObj :: s)) (inv fmt b sc).
Proof.
  intros Hall Hs. revert first. induction l as [|[k x] l IH]; intro first; cbn [map_items].
  - tgo. intros s m0 Hm. apply reach_nil. split; [destruct first; [left|right]; exact Hm|reflexivity].
  - cbn [map forallb snd] in Hall. apply andb_prop in Hall. destruct Hall as [Hx Hl]. destruct (okn_some _ Hx) as (i & Hc). specialize (IH Hl).
    tgo; intros s m0 Hm; rpull Hm; cbn [app]; rchain.
Qed.

Lemma sort_items_in {A} (l : list (bstr * A)) x : In x (sort_items l) -> In x l.
Proof.
  induction l as [|y l IH]; cbn [sort_items]; [auto|].
  set (ins := fix ins (x : bstr * A) (l : list (bstr * A)) {struct l} : list (bstr * A) :=
                match l with [] => [x] | y :: r => if bstr_leb (fst x) (fst y) then x :: l else y :: ins x r end).
  assert (G : forall z acc, In x (ins z acc) -> x = z \/ In x acc).
  { intros z acc. induction acc as [|q acc IHa]; cbn.
    - intros [->|[]]. auto.
    - destruct (bstr_leb (fst z) (fst q)); cbn.
      + intros [->|[->|Hi]]; auto.
      + intros [->|Hi]; auto. destruct (IHa Hi); auto. }
  intro H. destruct (G _ _ H) as [->|Hi]; [left; reflexivity|right; auto].
Qed.

Lemma t_block n i b sc : expr_chk fmt fk n = Some i -> scope_ok sc ->
  tr (inv fmt b sc) (jblock w n) (fun bl cs => exprC fmt bl i /\ cs = []) (inv fmt b sc).
Proof.
  intros Hc Hs st bl st' (Hsc & Hb & Hk) H. unfold jblock in H. apply bind_inv in H. destruct H as (x & st1 & H1 & H2).
  apply get_inv in H1. destruct H1; subst.
  match type of H2 with (match w n ?sub with _ => _ end) = _ => destruct (w n sub) as [[[] sub']| | | | |] eqn:Ew; try discriminate;
    destruct (IHt n i Hc [] _ Hs sub tt sub' (conj eq_refl (conj eq_refl Hk)) Ew) as (cs & E & C & S & B & K) end.
  inversion H2; subst. exists []. split; [apply ext_refl; reflexivity|]. unfold ext in E. cbn in E. rewrite app_nil_r in E.
  rewrite E, rev_involutive. repeat split; auto.
Qed.
#[local] Hint Resolve t_items t_map_items t_block : jwf.

Lemma frame_lookup s k g : scope_ok s -> ident_ok k = true -> jsc_lookup s k = g -> g <> [] -> name_ok g.
Proof.
  induction 1 as [|f r Hf _ IH]; cbn [jsc_lookup]; intros Hk E Hg; [congruence|].
  destruct (assoc_s k f) as [g'|] eqn:Ea; [|auto]. subst g'. destruct Hf as [Hf _]. eapply Hf; eauto.
Qed.

Lemma loop_names s v ix lim : scope_ok s -> jsc_loop s v = (ix, lim) -> ix <> [] -> name_ok ix /\ name_ok lim.
Proof.
  induction 1 as [|f r Hf _ IH]; cbn [jsc_loop]; intros E Hix; [inversion E; subst; congruence|].
  destruct (bstr_eqb match assoc_s jk_var f with Some x => x | None => [] end v
            && negb match match assoc_s jk_index f with Some x => x | None => [] end with [] => true | _ => false end) eqn:Ec; [|auto].
  inversion E; subst. destruct Hf as [_ Hf]. destruct (assoc_s jk_index f) as [ix|] eqn:Ei; [|congruence].
  destruct (Hf ix eq_refl Hix) as (Hn & lim & El & Hl). rewrite El. auto.
Qed.

Definition rp := CText t_rpar.
Definition prefC (cs : list chunk) (j : nat) : Prop :=
  forall cl s, exists cl', emits md cs (MWant cl) s (MWant cl') (repeat KParen j ++ s) [].

Lemma closers_run j : forall s, emits md (repeat rp j) (MHave false) (repeat KParen j ++ s) (MHave false) s [].
Proof.
  induction j as [|j IH]; intro s; cbn [repeat app]; [apply emits_nil|].
  eapply emits_cons0; [|apply IH]. unfold rp. esingle.
Qed.

Definition accok (a : node) : bool :=
  match a with
  | NAccIndex _ _ _ => true
  | NAccKey _ _ k => ident_ok k
  | NAccExpr _ _ e => okn e
  | _ => false
  end.

(* a name after a dot: any identifier name, reserved or not *)
Lemma dot_name_run k s : ident_ok k = true -> emits md [CName k] MDot s (MHave false) s [].
Proof.
  intro Hk. eapply emits_toks1; [cbn [lex_chunk]; rewrite (lex_name_ident _ Hk); reflexivity| |tail_solve].
  destruct (tok_of_ident_cases k) as [(kk & ->)| ->]; reflexivity.
Qed.

Lemma repeat_snoc {A} (x : A) j s : repeat x j ++ x :: s = repeat x (S j) ++ s.
Proof. induction j as [|j IH]; cbn [repeat app]; [reflexivity|]. rewrite IH. reflexivity. Qed.

(* the null-safe prefix of one access: "((expr == null) ? null : " opens a parenthesis that a closer will close *)
Lemma t_prefix (ns : bool) expr closers b sc : exprC fmt expr false ->
  tr (inv fmt b sc) (if ns then jemit ([CText t_op_open] ++ expr ++ [CText t_nullsafe]) ;;; jret (CText t_rpar :: closers) else jret closers)
    (fun cl cs => exists j, cl = repeat rp j ++ closers /\ prefC cs j) (inv fmt b sc).
Proof.
  intro Ce. tgo.
  - exists 1%nat. split; [reflexivity|]. intros cl s. exists false. norm_app. cbn [repeat app]. echain.
  - exists 0%nat. split; [reflexivity|]. intros cl s. exists cl. apply emits_nil.
Qed.

Lemma t_access acc : forall expr closers b sc, forallb accok acc = true -> exprC fmt expr false -> scope_ok sc ->
  tr (inv fmt b sc) (jdataref_access w acc expr closers)
    (fun res cs => exists j expr', res = expr' ++ repeat rp j ++ closers /\ exprC fmt expr' false /\ prefC cs j) (inv fmt b sc).
Proof.
  induction acc as [|a acc IH]; intros expr closers b sc Hall Ce Hs; cbn [jdataref_access].
  - tgo. exists 0%nat, expr. repeat split; auto. intros cl s. exists cl. apply emits_nil.
  - cbn [forallb] in Hall. apply andb_prop in Hall. destruct Hall as [Ha Hl]. cbv zeta.
    (* after the prefix and the access itself, the rest; its prefixes stand on top of this one's *)
    assert (Rest : forall expr1 j1 c1, exprC fmt expr1 false -> prefC c1 j1 ->
              tr (inv fmt b sc) (jdataref_access w acc expr1 (repeat rp j1 ++ closers))
                (fun res c2 => exists j expr', res = expr' ++ repeat rp j ++ closers /\ exprC fmt expr' false /\ prefC (c1 ++ c2) j) (inv fmt b sc)).
    { intros expr1 j1 c1 C1 P1. eapply tr_post; [apply IH; assumption|]. intros res c2 (j2 & expr' & -> & C' & P2).
      exists (j2 + j1)%nat, expr'. split; [rewrite repeat_app, <- app_assoc; reflexivity|]. split; [exact C'|].
      intros cl s. destruct (P1 cl s) as (cl1 & R1). destruct (P2 cl1 (repeat KParen j1 ++ s)) as (cl2 & R2). exists cl2.
      rewrite repeat_app, <- app_assoc. exact (emits_app0 _ _ _ _ _ _ _ _ _ R1 R2). }
    destruct a; try discriminate Ha; cbn [accok] in Ha;
      (eapply tr_bind; [apply t_prefix; exact Ce|]; intros cl c1 (j1 & -> & P1)).
    + apply Rest; [|exact P1]. intros cl s. eapply emits_app0; [apply Ce|]. eapply emits_cons0; [esingle|]. eapply emits_cons0; [apply emits_num_Z|]. esingle.
    + apply Rest; [|exact P1]. intros cl s. eapply emits_app0; [apply Ce|]. eapply emits_cons0; [esingle|apply dot_name_run; exact Ha].
    + destruct (okn_some _ Ha) as (i & Hc). tstep. cbn [app]. apply Rest; [|exact P1]. intros cl s. echain.
Qed.
#[local] Hint Resolve t_access : jwf.

Lemma t_dataref key acc b sc : ident_ok key = true -> forallb accok acc = true -> scope_ok sc ->
  tr (inv fmt b sc) (visit_dataref w key acc) (fun _ cs => exprC fmt cs false) (inv fmt b sc).
Proof.
  intros Hkey Hacc Hs. unfold visit_dataref.
  assert (Base : tr (inv fmt b sc) (if bstr_eqb key n_ij then jret [CText t_opt_ij]
                     else g <~ lookup_var key ;; match g with [] => jret [CText t_opt_data_dot; CName key] | _ => jret [CName g] end)
                   (fun base cs => exprC fmt base false /\ cs = []) (inv fmt b sc)).
  { destruct (bstr_eqb key n_ij). tgo. split; [intros cl s; echain|reflexivity].
    unfold lookup_var. tstep. tstep. tstep. match goal with H : inv _ _ _ _ |- _ => destruct H as (<- & _) end. destruct (jsc_lookup (j_scope x) key) as [|c g] eqn:El; tgo; (split; [|reflexivity]).
    - intros cl s. eapply emits_cons0; [esingle|apply dot_name_run; exact Hkey].
    - assert (Hn : name_ok (c :: g)) by (eapply frame_lookup; [exact Hs|exact Hkey|exact El|discriminate]). intros cl s. esingle. }
  eapply tr_bind; [exact Base|]. intros base c0 [Cb ->]. tgo.
  intros cl s. cbn [app]. rewrite app_nil_r. match goal with P : prefC _ _ |- _ => destruct (P cl s) as (cl' & R) end. eapply emits_app0; [exact R|]. eapply emits_app0; [esub|]. apply closers_run.
Qed.

Lemma aset_forall {A} (P : bstr * A -> Prop) l k v : Forall P l -> P (k, v) -> Forall P (aset l k v).
Proof.
  induction 1 as [|[k' v'] l Hh Ht IH]; intro Hp; cbn [aset]; [auto|]. destruct (bstr_eqb k k'); constructor; auto.
Qed.

Lemma t_note_called key imp b sc : imp_ok fmt imp = true ->
  tr (inv fmt b sc) (note_called key imp) (fun _ cs => cs = []) (inv fmt b sc).
Proof.
  intro Hi. unfold note_called. destruct imp as [|c imp]; [tgo; reflexivity|]. apply tr_mod; [|reflexivity].
  intros st (Hs & Hb & Hk). repeat split; auto. unfold called_ok in *. cbn. apply aset_forall; assumption.
Qed.
#[local] Hint Resolve t_note_called : jwf.

Definition flagn (a : node) : bool := match expr_chk fmt fk a with Some i => i | None => false end.

Lemma emits_text_local t ts m0 s0 m1 s1 base : text_toks t = Some ts -> js_run md ts m0 s0 = Some (m1, s1, []) ->
  text_okb t ts m1 = true ->
  emode m0 = true -> forallb eframe s0 = true -> emits md [CText t] m0 (s0 ++ base) m1 (s1 ++ base) [].
Proof.
  intros L R Tk Hm Hs. destruct (run_local md ts m0 s0 m1 s1 [] base Hm Hs R) as (_ & R').
  eapply emits_toks1; [|exact R'|apply text_okb_tail; exact Tk]. cbn [lex_chunk]. unfold text_toks in L.
  destruct (lex_text 0 LNormal t) as [[ts' m']|]; [|discriminate]. destruct m'; try discriminate. inversion L; subst. reflexivity.
Qed.

Lemma t_pieces args b sc : forallb okn args = true -> scope_ok sc -> forall ps m0 s0 m1 s1,
  pieces_run fmt ps (map flagn args) m0 s0 = Some (m1, s1) -> emode m0 = true -> forallb eframe s0 = true ->
  tr (inv fmt b sc) (apply_pieces w ps args) (fun _ cs => forall base, emits md cs m0 (s0 ++ base) m1 (s1 ++ base) []) (inv fmt b sc).
Proof.
  intros Hall Hs. induction ps as [|[t|i] ps IH]; intros m0 s0 m1 s1 Hp Hm Hs0; cbn [apply_pieces pieces_run] in *.
  - inversion Hp; subst. tgo. intro base. apply emits_nil.
  - destruct (text_toks t) as [ts|] eqn:Et; [|discriminate]. destruct (js_run md ts m0 s0) as [[[m' s'] [|? ?]]|] eqn:Er; try discriminate.
    destruct (emode m' && forallb eframe s' && text_okb t ts m') eqn:Ee; [|discriminate]. apply andb_prop in Ee. destruct Ee as [Ee Tk]. apply andb_prop in Ee. destruct Ee as [Em' Es'].
    specialize (IH _ _ _ _ Hp Em' Es'). tgo. intro base. eapply emits_cons0; [|match goal with R : forall base, emits _ _ _ _ _ _ _ |- _ => apply R end]. eapply emits_text_local; eauto.
  - destruct m0; try discriminate. destruct (nth_error (map flagn args) i) as [f|] eqn:En; [|discriminate].
    destruct (nth_error args i) as [a|] eqn:Ea; [|tgo].
    rewrite nth_error_map, Ea in En. cbn in En. inversion En; subst f.
    assert (Ha : okn a = true). { rewrite forallb_forall in Hall. apply Hall. eapply nth_error_In; eauto. }
    destruct (okn_some _ Ha) as (ia & Hc). assert (Ef : flagn a = ia) by (unfold flagn; rewrite Hc; reflexivity). rewrite Ef in Hp.
    specialize (IH _ _ _ _ Hp eq_refl Hs0). tgo. intro base. eapply emits_app0; [esub|match goal with R : forall base, emits _ _ _ _ _ _ _ |- _ => apply R end].
Qed.

Lemma emits_want_cl cs s m' s' d cl : m' <> MWant false -> emits md cs (MWant false) s m' s' d -> emits md cs (MWant cl) s m' s' d.
Proof.
  intros Hne (ts & L & R & B). exists ts. split; [exact L|]. split; [|exact B]. destruct ts as [|t ts]; [inversion R; congruence|]. cbn [js_run js_step] in *.
  destruct (step_want false s t) as [[[m1 s1] d1]|] eqn:E; [|discriminate R]. rewrite (step_want_cl cl s t _ E). exact R.
Qed.

Lemma t_function p name args i b sc : expr_chk fmt (S fk) (NFunc p name args) = Some i -> scope_ok sc ->
  tr (inv fmt b sc) (visit_function o w name args) (fun _ cs => exprC fmt cs i) (inv fmt b sc).
Proof.
  cbn [expr_chk]. fold okn. intros Hc Hs.
  destruct (forallb okn args && imp_ok fmt (fmt_chunks (fmt_function fmt) name)) eqn:E0; [|discriminate]. apply andb_prop in E0. destruct E0 as [Hall Himp].
  unfold visit_function.
  destruct (assoc_s name js_builtin_funcs) as [jn|] eqn:Eb.
  - destruct (call_open_text fmt (t_soy_dd ++ jn ++ t_lpar)) eqn:Et; [|discriminate]. inversion Hc; subst i.
    unfold builtin_call. tgo. intros cl s. norm_app.
    unfold call_open_text in Et. destruct (text_toks (t_soy_dd ++ jn ++ t_lpar)) as [ts|] eqn:Ett; [|discriminate].
    destruct (js_run md ts (MWant false) []) as [[[m1 s1] d1]|] eqn:Er; [|discriminate].
    destruct m1; try discriminate. destruct closable; try discriminate. destruct s1 as [|[] [|? ?]]; try discriminate. destruct d1; try discriminate.
    match goal with R : forall K s m0, _ |- _ => destruct (R KCall s (MWant true) ltac:(auto) eq_refl) as (m' & s' & R' & Hm' & ->) end.
    eapply emits_cons0; [|eapply emits_app0; [exact R'|]].
    + apply emits_want_cl; [discriminate|]. exact (emits_text_local _ _ _ _ _ _ s Ett Er Et eq_refl eq_refl).
    + eapply emits_toks1; [vm_compute; reflexivity| |tail_solve]. apply close_call. exact Hm'.
  - destruct (assoc_s name js_funcs) as [[vl alts]|] eqn:Ef.
    + destruct (pick_alt alts (List.length args)) as [ps|] eqn:Ep; [|discriminate].
      change (map (fun a => match expr_chk fmt fk a with Some i => i | None => false end) args) with (map flagn args) in Hc.
      destruct (pieces_run fmt ps (map flagn args) (MWant false) []) as [[m1 s1]|] eqn:Er; [|discriminate].
      destruct m1; try discriminate. destruct s1; [|discriminate]. inversion Hc; subst i.
      pose proof (t_pieces args b sc Hall Hs ps _ _ _ _ Er eq_refl eq_refl). tgo.
      intros cl s. rewrite !app_nil_r. apply emits_want_cl; [discriminate|]. match goal with R : forall base, emits _ _ _ _ _ _ _ |- _ => apply (R s) end.
    + destruct (bstr_eqb name jn_isFirst || bstr_eqb name jn_isLast || bstr_eqb name jn_index) eqn:El; [|discriminate]. inversion Hc; subst i.
      tstep. match goal with H : inv _ _ _ _ |- _ => destruct H as (<- & _) end. destruct (jsc_loop (j_scope x) (loop_var_of args)) as [ix lim] eqn:Eloop. destruct ix as [|c0 ix]; [tgo|].
      destruct (loop_names _ _ _ _ Hs Eloop ltac:(discriminate)) as [Nix Nlim]. tgo; intros cl s; cbn [app]; echain.
Qed.

#[local] Hint Resolve t_dataref : jwf.

Lemma expr_body n i : expr_chk fmt (S fk) n = Some i -> expr_post (jwalk_body o w) n i.
Proof.
  intro Hc. apply expr_post0_tr. intros b sc Hs. unfold jwalk_body. tstep. tstep.
  destruct n; try discriminate Hc; cbn [jwalk_node]; cbn [expr_chk] in Hc; fold okn in Hc.
  - (* null *) inversion Hc; subst. tgo. efin.
  - (* bool *) inversion Hc; subst. tgo; efin.
  - (* int *) inversion Hc; subst. tgo. intros cl s. apply emits_num_Z.
  - (* float *)
    destruct (float_node_string f) as [t|] eqn:Ef; [|discriminate]. destruct (lex_num t) as [ts|] eqn:El; [|discriminate].
    destruct (js_run md ts (MWant false) []) as [[[m1 s1] d1]|] eqn:Er; [|discriminate].
    destruct m1; try discriminate. destruct s1; try discriminate. destruct d1; try discriminate.
    destruct (text_okb t ts (MHave isint)) eqn:Tk; [|discriminate]. inversion Hc; subst. tgo.
    intros cl s. eapply emits_toks1; [cbn [lex_chunk]; rewrite El; reflexivity| |apply text_okb_tail; exact Tk]. apply expr_toks_run. exact Er.
  - (* string *) inversion Hc; subst. tgo. efin.
  - (* global *) destruct (node_of_value p v) as [n'|] eqn:En; [|discriminate]. tgo. assumption.
  - (* function *) pose proof (t_function p name args i b sc Hc Hs). tgo. assumption.
  - (* list literal *)
    destruct (forallb okn items) eqn:Ea; [|discriminate]. inversion Hc; subst. tgo. intros cl s. cbn [app].
    eapply emits_cons0; [esingle|]. match goal with I : forall K s m0, _ |- _ => destruct (I KArr s (MWant true) ltac:(auto) eq_refl) as (m' & s' & R & Hm & ->) end. eapply emits_app0; [exact R|].
    eapply emits_toks1; [vm_compute; reflexivity|apply close_arr; exact Hm|tail_solve].
  - (* map literal *)
    destruct (forallb okn (map snd items)) eqn:Ea; [|discriminate]. inversion Hc; subst.
    assert (Hall' : forallb okn (map snd (sort_items items)) = true).
    { rewrite forallb_forall in *. intros n Hn. apply in_map_iff in Hn. destruct Hn as ([k v] & <- & Hi). apply Ea.
      apply in_map_iff. exists (k, v). split; [reflexivity|]. apply sort_items_in. exact Hi. }
    tgo. intros cl s. cbn [app].
    eapply emits_cons0; [esingle|]. match goal with I : forall s m0, _ -> reach _ _ _ _ _ |- _ => destruct (I s (MKey true) eq_refl) as (m' & s' & R & Hm & ->) end. eapply emits_app0; [exact R|].
    eapply emits_toks1; [vm_compute; reflexivity|apply close_obj; exact Hm|tail_solve].
  - (* data reference *)
    match type of Hc with (if ?c then _ else _) = _ => destruct c eqn:Ea; [|discriminate] end. inversion Hc; subst.
    apply andb_prop in Ea. destruct Ea as [Ek Eacc].
    assert (Hacc : forallb accok access = true).
    { rewrite forallb_forall in *. intros a Ha. specialize (Eacc a Ha). destruct a; try discriminate Eacc; cbn [accok]; auto. }
    tgo. assumption.
  - (* not *) destruct (expr_chk fmt fk n) as [j|] eqn:Ea; [|discriminate]. inversion Hc; subst. tgo. efin.
  - (* neg *) destruct (expr_chk fmt fk n) as [j|] eqn:Ea; [|discriminate]. inversion Hc; subst. tgo. efin.
  - (* binary *)
    destruct (expr_chk fmt fk n1) as [j1|] eqn:Ea; [|discriminate]. destruct (expr_chk fmt fk n2) as [j2|] eqn:Eb; [|discriminate]. inversion Hc; subst.
    destruct op; try (eapply t_op; eauto; discriminate). tgo. efin.
  - (* ternary *)
    destruct (expr_chk fmt fk n1) as [j1|] eqn:Ea; [|discriminate]. destruct (expr_chk fmt fk n2) as [j2|] eqn:Eb; [|discriminate].
    destruct (expr_chk fmt fk n3) as [j3|] eqn:Ed; [|discriminate]. inversion Hc; subst. tgo. efin.
Qed.
End Body.

(* every expression node of a checked file, at every fuel of the walker *)
Theorem expr_walk : forall fk n i, expr_chk fmt fk n = Some i -> forall g, expr_post (jwalk o g) n i.
Proof.
  induction fk as [|fk IH]; intros n i Hc g; [discriminate Hc|].
  destruct g as [|g]; [intros st st' _ _ H; discriminate H|].
  change (jwalk o (S g)) with (jwalk_body o (jwalk o g)). apply expr_body with (fk := fk); [|exact Hc].
  intros n' i' Hc'. apply IH. exact Hc'.
Qed.
End Expr.
