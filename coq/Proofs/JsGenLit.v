(* C14, literals: every chunk the generator emits is well-formed
   ([chunk_wf]): text chunks come from a vocabulary that does not depend on
   the input, template-originated strings are CStrLit chunks between single or
   double quotes, the file name in the header comment has no line terminator; and a
   CStrLit chunk, rendered, is read back by the ECMAScript literal reader as
   exactly the original bytes (from C16). *)
From Soy Require Import Model.Bytes Model.Num Model.Values Model.Outcome Model.Ast Model.Utf8 Model.JsEscape
  Generated.Tables Model.JsGen Spec.Codec Proofs.Utf8Proofs Proofs.CodecProofs Proofs.CodecJsPair Proofs.JsGenProofs Proofs.JsGenInv.
Open Scope N_scope.

(* ---- the header comment ---- *)
(* a JavaScript LineTerminator (LF, CR, U+2028, U+2029) starts at the head of s *)
Definition lt_at (s : bstr) : bool :=
  match s with
  | c :: r => (c =? 10) || (c =? 13)
              || match r with c1 :: c2 :: _ => (c =? 226) && (c1 =? 128) && ((c2 =? 168) || (c2 =? 169)) | _ => false end
  | [] => false
  end.
Fixpoint has_lt (s : bstr) : bool :=
  match s with
  | [] => false
  | _ :: r => lt_at s || has_lt r
  end.

Lemma lcs_cons c r :
  (line_comment_safe (c :: r) = c :: line_comment_safe r /\ lt_at (c :: r) = false)
  \/ (exists r', line_comment_safe (c :: r) = 32 :: line_comment_safe r').
Proof.
  cbn [line_comment_safe lt_at].
  destruct ((c =? 10) || (c =? 13)) eqn:E1. right. exists r. reflexivity.
  destruct r as [|c1 [|c2 r2]]; try (left; split; reflexivity).
  destruct ((c =? 226) && (c1 =? 128) && ((c2 =? 168) || (c2 =? 169))) eqn:E2.
  right. exists r2. reflexivity. left. split; reflexivity.
Qed.

Lemma lcs_no_lt_len n : forall s, (length s <= n)%nat -> has_lt (line_comment_safe s) = false.
Proof.
  induction n as [|n IH]; intros s Hl.
  - destruct s; [reflexivity|cbn in Hl; lia].
  - destruct s as [|c r]; [reflexivity|]. cbn [length] in Hl.
    assert (Hsub : forall r', (length r' <= length r)%nat -> has_lt (line_comment_safe r') = false) by (intros; apply IH; lia).
    cbn [line_comment_safe].
    destruct ((c =? 10) || (c =? 13)) eqn:E1.
    { cbn [has_lt lt_at]. rewrite Hsub by lia. destruct (line_comment_safe r) as [|? [|? ?]]; reflexivity. }
    destruct r as [|c1 [|c2 r2]].
    + cbn. rewrite E1. reflexivity.
    + cbn [line_comment_safe]. destruct ((c1 =? 10) || (c1 =? 13)) eqn:E3; cbn; rewrite E1; cbn; try rewrite E3; reflexivity.
    + destruct ((c =? 226) && (c1 =? 128) && ((c2 =? 168) || (c2 =? 169))) eqn:E2.
      { cbn [has_lt lt_at]. rewrite Hsub by (cbn; lia). destruct (line_comment_safe r2) as [|? [|? ?]]; reflexivity. }
      (* copied: the head of the result is c and no terminator starts there *)
      cbn [has_lt]. rewrite (Hsub (c1 :: c2 :: r2)) by lia. rewrite orb_false_r.
      cbn [lt_at]. rewrite E1. cbn [orb].
      destruct (lcs_cons c1 (c2 :: r2)) as [[Ec1 _]|[r' Ec1]]; rewrite Ec1.
      * destruct (lcs_cons c2 r2) as [[Ec2 _]|[r'' Ec2]]; rewrite Ec2.
        -- exact E2.
        -- destruct (c =? 226); destruct (c1 =? 128); reflexivity.
      * destruct (line_comment_safe r') as [|x ?]; [reflexivity|].
        destruct (c =? 226); [|reflexivity]. cbn. reflexivity.
Qed.

Lemma line_comment_safe_no_lt s : has_lt (line_comment_safe s) = false.
Proof. apply (lcs_no_lt_len (length s)). lia. Qed.

(* ---- well-formed chunks ---- *)
Definition chunk_wf (c : chunk) : Prop :=
  match c with
  | CText t => In t body_texts \/ In t table_texts \/ (exists n, t = indent_text n) \/ (exists op_, t = binop_sym op_)
               \/ t = t_fn_params \/ t = t_ns1
  | CStrLit q _ => q = 39 \/ q = 34
  | CName _ => True
  | CNum s => (exists z, s = dec_of_Z z) \/ (exists n, s = dec_of_N n) \/ (exists f, float_node_string f = Some s)
  | CFile s => has_lt s = false
  end.

(* the chunk predicate [chunk_wf] and the node predicate "any node" meet every hypothesis of the walk of
   Proofs/JsGenInv.v: each is one disjunct of [chunk_wf] *)
Ltac wf_side := intros; try apply Forall_forall; cbn [chunk_wf]; eauto 8 using line_comment_safe_no_lt.

Theorem gen_chunks_wf o fuel name body cs : gen_file o fuel name body = Ok cs -> Forall chunk_wf cs.
Proof. intro E. refine (gen_file_Q o chunk_wf (fun _ => True) _ _ _ _ _ _ _ _ _ _ _ _ _ _ fuel name body cs _ E); wf_side. Qed.

(* ---- a literal chunk denotes its string ---- *)
(* [lit_body s]: the bytes render_chunk writes between the quotes of a literal chunk.  It is the escaper
   soy calls (Model/JsEscape.v js_escape_soy: text/template's JSEscape, or internal/jsescape once repair
   C16-jsstr-astral-surrogate-pair is in the tree; Generated/Tables.v jsstr_pair_js is read from
   soyjs/exec.go).  The statements below are generic in that flag: the BMP-or-printable guard is needed
   only while the library's escaper is called. *)
Definition lit_body (s : bstr) : bstr := removelast (tl (render_chunk is_print_tbl (CStrLit 0 s))).

Lemma render_strlit q s : render_chunk is_print_tbl (CStrLit q s) = q :: lit_body s ++ [q].
Proof. unfold lit_body. cbn [render_chunk tl]. rewrite removelast_last. reflexivity. Qed.

Lemma lit_body_eq s : lit_body s = js_escape_soy jsstr_pair_js is_print_tbl s.
Proof.
  unfold lit_body. cbn [render_chunk tl]. rewrite removelast_last.
  (* render_chunk (Model/JsGen.v) names js_escape_soy jsstr_pair_js: reflexivity.  The second branch is for a
     render_chunk that names the library's js_escape: the same function when jsstr_pair_js is false. *)
  first [reflexivity | unfold jsstr_pair_js; symmetry; apply js_escape_soy_false].
Qed.

Definition lit_guard (s : bstr) : Prop :=
  utf8_valid s = true /\ (jsstr_pair_js = true \/ Forall (fun r => r < 65536 \/ is_print_tbl r = true) (runes s)).

Theorem strlit_denotes q s : q = 39 \/ q = 34 -> lit_guard s ->
  render_chunk is_print_tbl (CStrLit q s) = q :: lit_body s ++ [q]
  /\ js_read_literal_q q (lit_body s) = Some s
  /\ Forall js_inert (lit_body s).
Proof.
  intros Hq [Hv Hg]. split; [apply render_strlit|]. rewrite lit_body_eq. split; [|apply js_escape_soy_inert].
  apply (jsstr_roundtrip_soy_q jsstr_pair_js is_print_tbl is_print_tbl_ls is_print_tbl_ps q Hq); [exact Hv|].
  destruct Hg as [Hp|Hg]; [apply Forall_forall; intros; left; exact Hp|].
  eapply Forall_impl; [|exact Hg]. intros r Hr. right. exact Hr.
Qed.

(* every template-originated string the generator writes, in every generated
   file, under every option: the literal chunk reads back as the string *)
Theorem literals_denote o fuel name body cs : gen_file o fuel name body = Ok cs ->
  forall q s, In (CStrLit q s) cs -> lit_guard s ->
    (q = 39 \/ q = 34)
    /\ js_read_literal_q q (lit_body s) = Some s
    /\ Forall js_inert (lit_body s).
Proof.
  intros E q s Hin Hg. pose proof (gen_chunks_wf _ _ _ _ _ E) as F.
  pose proof (proj1 (Forall_forall _ _) F _ Hin) as Hq. cbn in Hq.
  split; [exact Hq|]. destruct (strlit_denotes q s Hq Hg) as (_ & H2 & H3). auto.
Qed.

Theorem literals_denote_repaired : jsstr_pair_js = true ->
  forall o fuel name body cs, gen_file o fuel name body = Ok cs ->
  forall q s, In (CStrLit q s) cs -> utf8_valid s = true ->
    (q = 39 \/ q = 34)
    /\ js_read_literal_q q (lit_body s) = Some s
    /\ Forall js_inert (lit_body s).
Proof. intros Hp o fuel name body cs E q s Hin Hv. apply (literals_denote o fuel name body cs E q s Hin). split; [exact Hv|left; exact Hp]. Qed.

(* while the library's escaper is called (jsstr_pair_js = false) the unguarded statement is false of the
   faithful model: a non-printable astral rune is written with five hex digits (finding
   js-literal-astral-nonprint-5hex); with internal/jsescape the guard is void (lit_guard's first disjunct) *)
Theorem literals_astral_refuted : jsstr_pair_js = false ->
  exists s, utf8_valid s = true
            /\ render_chunk is_print_tbl (CStrLit 39 s) = [39; 92; 117; 70; 48; 48; 48; 48; 39]
            /\ js_read_literal_q 39 (lit_body s) <> Some s.
Proof.
  intros Hp. destruct jsstr_astral_refuted as (s & Hv & He & _ & Hne). exists s.
  assert (lit_body s = js_escape is_print_tbl s) as Hb by (rewrite lit_body_eq, Hp; apply js_escape_soy_false).
  split; [exact Hv|]. split.
  - rewrite render_strlit, Hb, He. reflexivity.
  - rewrite Hb. exact Hne.
Qed.

(* ---- the emission sites of template-originated strings ----
   Each kind of string goes to the output as a CStrLit chunk carrying exactly
   the original bytes (the equations hold by computation, for every state). *)
Definition out_after (m : J unit) (st : jstate) : option (list chunk) :=
  match m st with Ok (_, st') => Some (j_out st') | _ => None end.

Lemma site_raw_text o w prev p t st :
  out_after (jwalk_node o w prev (NRawText p t)) st
  = Some (rev [CText (indent_text (j_indent st)); CName (j_buf st); CText t_pluseq; CStrLit 39 t; CText t_semi_nl] ++ j_out st).
Proof. reflexivity. Qed.

Lemma site_msg_html_tag o w prev p t st :
  out_after (jwalk_node o w prev (NMsgHtmlTag p t)) st
  = Some (rev [CText (indent_text (j_indent st)); CName (j_buf st); CText t_pluseq; CStrLit 39 t; CText t_semi_nl] ++ j_out st).
Proof. reflexivity. Qed.

Lemma site_css_suffix o w prev p sfx st :
  out_after (jwalk_node o w prev (NCss p None sfx)) st
  = Some (rev [CText (indent_text (j_indent st)); CName (j_buf st); CText t_pluseq; CStrLit 39 sfx; CText t_semi_nl] ++ j_out st).
Proof. reflexivity. Qed.

Lemma site_string_literal o w prev p quoted v st :
  out_after (jwalk_node o w prev (NString p quoted v)) st = Some (CStrLit 39 v :: j_out st).
Proof. reflexivity. Qed.

(* a global whose value is a string is walked as a string literal node of that value *)
Lemma site_global_string o w prev p name s : jwalk_node o w prev (NGlobal p name (VStr s)) = w (NString p n_unused s).
Proof. reflexivity. Qed.

(* map literal: each key is written as a double-quoted literal chunk before its value *)
Lemma site_map_key w first k x r :
  map_items w first ((k, x) :: r)
  = jbind (if first then jret tt else jtxt t_comma)
      (fun _ => jbind (jemit [CStrLit 34 k; CText t_colon]) (fun _ => jbind (w x) (fun _ => map_items w false r))).
Proof. reflexivity. Qed.

(* the text of a translation *)
Lemma site_translation_text w body t : jeval_part w body (JMRaw t) = write_raw_text t.
Proof. reflexivity. Qed.

(* a decidable form of the guard, for concrete strings *)
Definition lit_guard_b (s : bstr) : bool := utf8_valid s && forallb (fun r => (r <? 65536) || is_print_tbl r) (runes s).
Lemma lit_guard_b_ok s : lit_guard_b s = true -> lit_guard s.
Proof.
  unfold lit_guard_b, lit_guard. intro H. apply andb_prop in H. destruct H as [H1 H2]. split; [exact H1|]. right.
  apply Forall_forall. intros r Hr. pose proof (proj1 (forallb_forall _ _) H2 r Hr) as H.
  apply orb_prop in H. destruct H as [H|H]; [left; apply N.ltb_lt; exact H|right; exact H].
Qed.

(* ---- the vocabulary of generator text ----
   [in_vocabulary] does not mention the file, the options or the state: it is a
   fixed set of byte strings (plus the indentation strings).  Every CText chunk
   of every generated file is in it, so the bytes of a template (raw text,
   string literals, map keys, css names, message and translation text, global
   values, and also identifiers) never reach the output as generator text:
   strings go through CStrLit (the escaper), identifiers through CName, numbers
   through CNum, the file name through CFile. *)
Definition in_vocabulary (t : bstr) : Prop :=
  In t body_texts \/ In t table_texts \/ (exists n, t = indent_text n) \/ (exists op_, t = binop_sym op_)
  \/ t = t_fn_params \/ t = t_ns1.

Theorem no_template_bytes_in_text o fuel name body cs : gen_file o fuel name body = Ok cs ->
  forall c, In c cs ->
    match c with
    | CText t => in_vocabulary t
    | CStrLit q _ => q = 39 \/ q = 34           (* a template string, between quotes, through the escaper (lit_body) *)
    | CName _ | CNum _ | CFile _ => True         (* an identifier, a number, the file name in the header comment *)
    end.
Proof.
  intros E c Hin. pose proof (proj1 (Forall_forall _ _) (gen_chunks_wf _ _ _ _ _ E) c Hin) as H.
  destruct c; cbn in H; auto.
Qed.

(* the emission sites are exhaustive over the node constructors that carry a
   template string: walking ANY node appends only well-formed chunks, so a
   constructor's string field can appear in the output in a CStrLit chunk only
   (the per-constructor equations are the site_* lemmas above) *)
Theorem walk_chunks_wf o fuel n st x st' : jwalk o fuel n st = Ok (x, st') ->
  Forall (fun kv : bstr * list chunk => Forall chunk_wf (snd kv)) (j_called st) ->
  exists cs, j_out st' = rev cs ++ j_out st /\ Forall chunk_wf cs.
Proof.
  intros E Hc.
  assert (H : jspec chunk_wf T (jwalk o fuel n))
    by (refine (sp_walk o chunk_wf (fun _ => True) _ _ _ _ _ _ _ _ _ _ _ _ _ fuel n I); wf_side).
  destruct (H st x st' Hc E) as (cs & Eo & F & _). exists cs. auto.
Qed.
