(* C15, scanner half: what lexText does on a stretch T of template text without braces that is followed by the
   end of the input or by a tag (the remaining input is T ++ tl), related to the Spec's [pieces] of T
   (Spec/Text.v) and to [line_open] (Spec/TextMix.v: no "//" comment is open where a tag begins).  String-level
   lemmas in the style of Proofs/LexTokens.v ([span]: the cursor; items described by what is appended to
   [l_out]).  The comment states are in Proofs/LexBodyMix.v. *)
From Soy Require Import Model.Bytes Model.Utf8 Model.Outcome Model.Token Generated.Tables Model.Lexer Spec.Text Spec.TextMix
  Proofs.Utf8Proofs Proofs.RawTextProofs Proofs.LexerPrim Proofs.LexerStates Proofs.LexTokens Proofs.LexExpr.
From Soy Require Export Proofs.BytesBase.
From Coq Require Import ZifyBool Lia.
Open Scope Z_scope.

(* ---------- small facts ---------- *)
Lemma last_byte_snoc (x : bstr) c : Lexer.last_byte (x ++ [c]) = Z.of_N c.
Proof.
  induction x as [|a x IH]; [reflexivity|]. cbn [app]. destruct (x ++ [c]) as [|d r] eqn:E.
  - destruct x; discriminate.
  - change (Lexer.last_byte (a :: d :: r)) with (Lexer.last_byte (d :: r)). exact IH.
Qed.

Lemma eol_byte c : gen_isEndOfLine (Z.of_N c) = line_break c.
Proof. unfold gen_isEndOfLine, line_break. lia. Qed.
Lemma spaceeol_byte c : gen_isSpaceEOL (Z.of_N c) = ws c.
Proof. unfold gen_isSpaceEOL, gen_isSpace, gen_isEndOfLine, ws. lia. Qed.
Lemma spaceeol_hi r : 128 <= r -> gen_isSpaceEOL r = false.
Proof. unfold gen_isSpaceEOL, gen_isSpace, gen_isEndOfLine. lia. Qed.

(* the test lexText makes before taking "//" as a comment: the character before is white space, or there is none *)
Definition pwof (r0 : Z) (l : lx) : bool :=
  let lce := if (r0 =? 0) && negb (match t_val (l_last l) with [] => true | _ => false end)
             then Lexer.last_byte (t_val (l_last l)) else r0 in
  (lce =? 0) || gen_isSpaceEOL lce.

Lemma pwof_last r0 l l' : unsent l l' -> pwof r0 l' = pwof r0 l.
Proof. intros (_ & H & _). unfold pwof. rewrite H. reflexivity. Qed.

Lemma pwof_nz r0 l : r0 <> 0 -> pwof r0 l = gen_isSpaceEOL r0.
Proof. intros H. unfold pwof. assert (E : (r0 =? 0) = false) by lia. rewrite E. cbn [andb]. rewrite E. reflexivity. Qed.

(* the items a piece of text gives rise to: none when it is empty or only white space with a line break *)
Definition droppable (v : bstr) : bool := match v with [] => true | _ => all_space_with_newline v end.
Definition is_text_of (v : bstr) (txt : list tok) : Prop :=
  if droppable v then txt = [] else exists p, txt = [{| t_typ := itemText; t_pos := p; t_val := v |}].

(* [t] is what remains of [s] after some prefix (all that is used: predicates on every byte are inherited) *)
Definition suffix_of (t s : bstr) : Prop := forall P : N -> Prop, Forall P s -> Forall P t.
Lemma suffix_refl s : suffix_of s s. Proof. intros P H. exact H. Qed.
Lemma suffix_app t bs s : suffix_of t s -> suffix_of t (bs ++ s).
Proof. intros H P HP. apply Forall_app in HP. apply H. tauto. Qed.
Lemma suffix_cons t c s : suffix_of t s -> suffix_of t (c :: s).
Proof. apply (suffix_app t [c]). Qed.
Lemma suffix_trans a c d : suffix_of a c -> suffix_of c d -> suffix_of a d.
Proof. intros H1 H2 P HP. apply H1, H2, HP. Qed.

(* [r0] is the rune lexText read last (0: none yet) and [w] the text pending: what the "//" test knows of the
   byte before the cursor *)
Definition last_read (r0 : Z) (w : bstr) : Prop :=
  (r0 = 0 -> w = []) /\ (r0 <> 0 -> exists w' b, w = w' ++ [b] /\ (gen_isSpaceEOL r0 = true -> ws b = true)).

Lemma last_read_0 : last_read 0 [].
Proof. split; [reflexivity|congruence]. Qed.

Lemma last_read_byte c w : c <> 0%N -> last_read (Z.of_N c) (w ++ [c]).
Proof. intros Hc. split; [lia|]. intros _. exists w, c. rewrite spaceeol_byte. auto. Qed.

Lemma last_read_hi r w bs : 128 <= r -> bs <> [] -> last_read r (w ++ bs).
Proof.
  intros Hr Hne. split; [lia|]. intros _. destruct (exists_last Hne) as (bs' & b & ->). exists (w ++ bs'), b.
  rewrite app_assoc, (spaceeol_hi r Hr). split; [reflexivity|discriminate].
Qed.

Section BT.
Variable inp : bstr.
Notation ilen := (Z.of_nat (length inp)).
Notation span := (span inp).
Notation next := (next inp ilen).

(* reading one rune, whatever comes next: [bs] are its bytes *)
Lemma next_any l w s : span l w s ->
  exists r bs s' l', s = bs ++ s' /\ next l = Ok (r, l') /\ span l' (w ++ bs) s' /\ unsent l l' /\
    l_width l' = Z.of_nat (length bs) /\
    ((s = [] /\ r = eof) \/ (exists c, (c < 128)%N /\ bs = [c] /\ r = Z.of_N c) \/
     (Forall (fun x => (128 <= x)%N) bs /\ bs <> [] /\ 128 <= r)).
Proof.
  intros Hs. destruct s as [|c s].
  { exists eof, [], [], (ateof l). rewrite app_nil_r. split; [reflexivity|]. split; [exact (next_eof inp l w Hs)|].
    split; [rewrite app_nil_r; exact Hs|]. repeat split. left. auto. }
  destruct (N.ltb_spec c 128) as [Hlt|Hge].
  { destruct (next_ascii inp l w c s Hs Hlt) as (Hn & Hs'). exists (Z.of_N c), [c], s, (adv l).
    split; [reflexivity|]. split; [exact Hn|]. split; [exact Hs'|]. repeat split. right. left. eauto. }
  pose proof (span_cur _ _ _ _ Hs) as (Hp & Hd). pose proof (span_bounds _ _ _ _ Hs) as (Hb & Hl).
  destruct (decode_rune (c :: s)) as [ru wd] eqn:E.
  destruct (decode_class c s ru wd E) as [(Hc & _)|(_ & Hru & Hwd & Hcont)]; [lia|].
  pose proof (decode_rune_width (c :: s) ltac:(discriminate)) as (Hw1 & _). rewrite E in Hw1. cbn [snd] in Hw1.
  set (bs := take wd (c :: s)). set (s' := drop wd (c :: s)).
  assert (Hbs : length bs = wd) by (apply take_length; lia).
  assert (Hsplit : c :: s = bs ++ s') by (symmetry; apply take_drop).
  eexists (Z.of_N ru), bs, s', _. split; [exact Hsplit|]. split.
  { unfold Lexer.next. destruct (ilen <=? l_pos l) eqn:E1; [cbn [length] in Hl; lia|]. destruct (l_pos l <? 0) eqn:E2; [lia|].
    rewrite Hd, E. reflexivity. }
  cbn [l_width]. rewrite Hbs. split.
  { destruct Hs as (H0 & Hds & Hps). unfold LexTokens.span. cbn [l_start l_pos]. split; [exact H0|]. split.
    - rewrite Hds, <- app_assoc, <- Hsplit. reflexivity.
    - rewrite app_length, Hbs. lia. }
  repeat split. right. right. split; [|split; [|lia]].
  - unfold bs. destruct wd as [|wd']; [lia|]. cbn [take]. constructor; [exact Hge|].
    rewrite take_firstn. cbn [pred] in Hcont. eapply Forall_impl; [|exact Hcont]. intros x Hx. apply cont_hi. exact Hx.
  - intros E0. rewrite E0 in Hbs. cbn [length] in Hbs. lia.
Qed.

Lemma span_fuel l w s : span l w s -> (length s < loop_fuel ilen l)%nat.
Proof. intros Hs. pose proof (span_bounds _ _ _ _ Hs) as (Hb & Hl). unfold loop_fuel. lia. Qed.

(* moving the cursor over bytes already known *)
Lemma span_fwd l w wb s : span l w (wb ++ s) -> span (set_pos l (l_pos l + Z.of_nat (length wb))) (w ++ wb) s.
Proof.
  intros (H0 & Hd & Hp). unfold LexTokens.span, set_pos. cbn [l_start l_pos]. split; [exact H0|]. split.
  - rewrite Hd, <- app_assoc. reflexivity.
  - rewrite app_length. lia.
Qed.
Lemma span_back l w wb s : span l (w ++ wb) s -> span (set_pos l (l_pos l - Z.of_nat (length wb))) w (wb ++ s).
Proof.
  intros (H0 & Hd & Hp). unfold LexTokens.span, set_pos. cbn [l_start l_pos]. split; [exact H0|]. split.
  - rewrite Hd, <- app_assoc. reflexivity.
  - rewrite app_length in Hp. lia.
Qed.

Lemma span_backup_any l' w bs s' : span l' (w ++ bs) s' -> l_width l' = Z.of_nat (length bs) -> span (backup l') w (bs ++ s').
Proof. intros Hs Hw. unfold backup. rewrite Hw. apply span_back. exact Hs. Qed.

Lemma span_skip1 l c wb s : span l (c :: wb) s -> span (set_start l (l_start l + 1)) wb s.
Proof.
  intros Hs. pose proof (span_bounds _ _ _ _ Hs) as (Hb & Hl). destruct Hs as (H0 & Hd & Hp). cbn [length] in Hp.
  unfold LexTokens.span, set_start. cbn [l_start l_pos]. split; [lia|]. split; [|lia].
  replace (Z.to_nat (l_start l + 1)) with (S (Z.to_nat (l_start l))) by lia.
  apply drop_S_cons with (c := c). exact Hd.
Qed.

(* maybeEmitText(l, backup): the pending text [w] before the [bk] bytes just read *)
Lemma met_span l w wb s : span l (w ++ wb) s ->
  exists l' txt, maybe_emit_text inp ilen 0 l (Z.of_nat (length wb)) = Ok l' /\ span l' wb s /\
    is_text_of w txt /\ l_out l' = rev txt ++ l_out l /\ l_dd l' = l_dd l /\ (txt = [] -> l_last l' = l_last l).
Proof.
  intros Hs. pose proof Hs as (H0 & Hd & Hp). rewrite app_length in Hp. unfold maybe_emit_text.
  destruct w as [|a w'].
  - destruct (l_start l <? l_pos l - Z.of_nat (length wb)) eqn:E; [exfalso; cbn [length] in Hp; lia|].
    exists l, []. split; [reflexivity|]. split; [exact Hs|]. repeat split.
  - assert (Hwl : (1 <= length (a :: w'))%nat) by (cbn [length]; lia). set (w := a :: w') in *.
    destruct (l_start l <? l_pos l - Z.of_nat (length wb)) eqn:E; [|exfalso; lia].
    pose proof (span_back l w wb s Hs) as Hs1. set (l1 := set_pos l (l_pos l - Z.of_nat (length wb))) in *.
    rewrite (slice_span inp l1 w (wb ++ s) Hs1). cbn [bind].
    assert (Hdr : droppable w = all_space_with_newline w) by reflexivity. unfold is_text_of. rewrite Hdr.
    destruct (all_space_with_newline w); cbn [bind].
    + pose proof (span_fwd _ _ _ _ (span_ignore inp l1 w (wb ++ s) Hs1)) as Hs3.
      eexists _, []. split; [reflexivity|]. split; [exact Hs3|]. repeat split.
    + destruct (emit_span inp 0 itemText l1 w (wb ++ s) Hs1) as (He & Hs2). rewrite He. cbn [bind].
      eexists _, [mktok 0 itemText l1 w]. split; [reflexivity|]. split; [exact (span_fwd _ _ _ _ Hs2)|].
      split; [eexists; reflexivity|]. repeat split. discriminate.
Qed.

(* ---------- lexText ---------- *)
(* bytes of ordinary template text: no NUL (outside the property's alphabet), no brace *)
Definition plain (s : bstr) : Prop := Forall (fun c => c <> 0%N /\ c <> 123%N /\ c <> 125%N) s.

(* what lexText does after reading a '/' *)
Definition slash_inner (r0 : Z) (l1 : lx) : outcome (lstate * lx + lx) :=
  '(r2, l2) <- next l1 ;;
  if r2 =? 47 then
    if pwof r0 l2 then
      l3 <- maybe_emit_text inp ilen 0 l2 3 ;;
      let l4 := if negb (r0 =? 0) then set_start l3 (l_start l3 + 1) else l3 in
      Ok (inl (LLineComment, l4))
    else Ok (inr (backup l2))
  else if r2 =? 42 then
    l3 <- maybe_emit_text inp ilen 0 l2 2 ;;
    '(r3, l4) <- next l3 ;;
    '(doc, l5) <- (if r3 =? 42 then '(r4, l') <- peek inp ilen l4 ;; Ok (negb (r4 =? 47), l') else Ok (false, l4)) ;;
    if doc then Ok (inl (LSoyDoc, l5)) else Ok (inl (LBlockComment, backup l5))
  else Ok (inr (backup l2)).

Lemma lex_text_loop_S f r0 l : lex_text_loop inp ilen 0 (S f) r0 l =
  '(r, l1) <- next l ;;
  res <- (if r =? 47 then slash_inner r0 l1 else Ok (inr l1)) ;;
  match res with
  | inl sl => Ok sl
  | inr l2 =>
      if r =? 123 then l3 <- maybe_emit_text inp ilen 0 (backup l2) 0 ;; Ok (LLeftDelim, l3)
      else if r =? 125 then errorf 0 e_close_brace l2
      else if r =? eof then
        l3 <- maybe_emit_text inp ilen 0 (backup l2) 0 ;;
        l4 <- emit inp ilen 0 itemEOF l3 ;;
        Ok (LDone, l4)
      else lex_text_loop inp ilen 0 f r l2
  end.
Proof. reflexivity. Qed.

Lemma lex_text_loop_other f r0 l r l1 : next l = Ok (r, l1) -> r <> 47 -> r <> 123 -> r <> 125 -> r <> eof ->
  lex_text_loop inp ilen 0 (S f) r0 l = lex_text_loop inp ilen 0 f r l1.
Proof.
  intros Hnx H1 H2 H3 H4. rewrite lex_text_loop_S, Hnx. cbn [bind].
  replace (r =? 47) with false by lia. cbn [bind]. replace (r =? 123) with false by lia.
  replace (r =? 125) with false by lia. replace (r =? eof) with false by lia. reflexivity.
Qed.

(* after "/": anything but "*", or "/" where a line comment may start, is text; the scanner steps back *)
Lemma slash_text l1 w s1 r0 : span l1 (w ++ [47%N]) s1 ->
  match s1 with d :: _ => d <> 42%N /\ (d =? 47)%N && pwof r0 l1 = false | [] => True end ->
  exists lb, slash_inner r0 l1 = Ok (inr lb) /\ span lb (w ++ [47%N]) s1 /\ unsent l1 lb.
Proof.
  intros Hs1 Hd. unfold slash_inner.
  destruct (next_any l1 _ s1 Hs1) as (r2 & bs & s2 & l2 & E & Hnx & Hs2 & Hu & Hwd & Hcls). rewrite Hnx. cbn [bind].
  rewrite (pwof_last r0 l1 l2 Hu).
  assert (Hgo : (r2 =? 42) = false /\ (r2 =? 47) && pwof r0 l1 = false).
  { destruct Hcls as [(_ & ->)|[(c & Hc & -> & ->)|(_ & _ & Hr)]]; [auto| |lia].
    subst s1. cbn [app] in Hd. clear - Hd. lia. }
  destruct Hgo as [H42 H47]. exists (backup l2). split; [|split; [rewrite E; apply span_backup_any; assumption|exact Hu]].
  destruct (r2 =? 47); [cbn [andb] in H47; rewrite H47|rewrite H42]; reflexivity.
Qed.

(* "//" where a line comment may start: the pending text is sent, without the white-space byte before the comment *)
Lemma slash_line l1 w s2 r0 : span l1 (w ++ [47%N]) (47%N :: s2) -> pwof r0 l1 = true -> last_read r0 w ->
  exists l' txt x', slash_inner r0 l1 = Ok (inl (LLineComment, l')) /\ l_dd l' = l_dd l1 /\ is_text_of x' txt /\
    l_out l' = rev txt ++ l_out l1 /\ (w = x' \/ exists b, ws b = true /\ w = x' ++ [b]) /\ span l' [47%N; 47%N] s2.
Proof.
  intros Hs1 Hpw [Hr0 Hr1]. unfold slash_inner.
  destruct (next_ascii inp l1 _ 47%N s2 Hs1 ltac:(lia)) as (Hnx & Hs2). rewrite Hnx. cbn [bind].
  change (Z.of_N 47 =? 47) with true. change (pwof r0 (adv l1)) with (pwof r0 l1). rewrite Hpw. cbv iota.
  destruct (Z.eq_dec r0 0) as [Hz|Hnz].
  - (* at the very start of this lexText: nothing pending *)
    rewrite (Hr0 Hz) in *. subst r0. cbn [app] in Hs2.
    assert (Hm : maybe_emit_text inp ilen 0 (adv l1) 3 = Ok (adv l1)).
    { unfold maybe_emit_text. destruct Hs2 as (_ & _ & Hp). cbn [length] in Hp.
      destruct (l_start (adv l1) <? l_pos (adv l1) - 3) eqn:E; [exfalso; lia|reflexivity]. }
    rewrite Hm. exists (adv l1), [], []. split; [reflexivity|]. split; [reflexivity|]. split; [reflexivity|].
    split; [reflexivity|]. split; [left; reflexivity|exact Hs2].
  - destruct (Hr1 Hnz) as (w' & b & -> & Hb). rewrite (pwof_nz r0 l1 Hnz) in Hpw.
    assert (Hs2' : span (adv l1) (w' ++ [b; 47%N; 47%N]) s2) by (rewrite <- !app_assoc in Hs2; exact Hs2).
    destruct (met_span (adv l1) w' [b; 47%N; 47%N] s2 Hs2') as (l3 & txt & Hm & Hs3 & Htx & Ho3 & Hdd3 & _).
    change (Z.of_nat (length [b; 47%N; 47%N])) with 3 in Hm. rewrite Hm. cbn [bind].
    assert (En : negb (r0 =? 0) = true) by lia. rewrite En.
    eexists _, txt, w'. split; [reflexivity|]. split; [exact Hdd3|]. split; [exact Htx|]. split; [exact Ho3|].
    split; [right; exists b; auto|exact (span_skip1 l3 b _ s2 Hs3)].
Qed.

(* "/*", unless it opens a soydoc (only "/**/" is a comment that begins with "/**") *)
Lemma slash_block l1 w e s3 r0 : span l1 (w ++ [47%N]) (42%N :: e :: s3) ->
  (e =? 42)%N && negb (match s3 with f :: _ => (f =? 47)%N | [] => false end) = false ->
  exists l' txt, slash_inner r0 l1 = Ok (inl (LBlockComment, l')) /\ l_dd l' = l_dd l1 /\ is_text_of w txt /\
    l_out l' = rev txt ++ l_out l1 /\ span l' [47%N; 42%N] (e :: s3).
Proof.
  intros Hs1 Hdoc. unfold slash_inner.
  destruct (next_ascii inp l1 _ 42%N _ Hs1 ltac:(lia)) as (Hnx & Hs2). rewrite Hnx. cbn [bind].
  change (Z.of_N 42 =? 47) with false. change (Z.of_N 42 =? 42) with true. cbv iota.
  rewrite <- app_assoc in Hs2.
  destruct (met_span (adv l1) w [47%N; 42%N] (e :: s3) Hs2) as (l3 & txt & Hm & Hs3 & Htx & Ho3 & Hdd3 & _).
  change (Z.of_nat (length [47%N; 42%N])) with 2 in Hm. rewrite Hm. cbn [bind]. cbn [adv l_out l_dd] in Ho3, Hdd3.
  destruct (next_any l3 _ _ Hs3) as (r3 & bs & s4 & l4 & E & Hnx3 & Hs4 & (Ho4 & _ & Hdd4) & Hwd & Hcls). rewrite Hnx3. cbn [bind].
  assert (Hdocp : exists l5, (if r3 =? 42 then '(r4, l') <- peek inp ilen l4 ;; Ok (negb (r4 =? 47), l') else Ok (false, l4)) = Ok (false, l5) /\
                    span (backup l5) [47%N; 42%N] (e :: s3) /\ l_out l5 = l_out l4 /\ l_dd l5 = l_dd l4).
  { destruct (r3 =? 42) eqn:E3.
    2:{ exists l4. split; [reflexivity|]. split; [rewrite E; apply span_backup_any; assumption|auto]. }
    (* "/**": only "/**/" is a comment *)
    destruct Hcls as [(E0 & _)|[(c & Hc & -> & ->)|(_ & _ & Hr)]]; [discriminate E0| |lia].
    cbn [app] in E. injection E as <- <-. assert (e = 42%N) by lia. subst e. cbn [andb] in Hdoc.
    destruct s3 as [|f s5]; [discriminate Hdoc|]. destruct (N.eqb_spec f 47) as [->|Hf]; [|discriminate Hdoc].
    destruct (next_ascii inp l4 _ 47%N s5 Hs4 ltac:(lia)) as (Hnx5 & _). unfold peek. rewrite Hnx5.
    exists (backup (adv l4)). split; [reflexivity|]. split; [|auto].
    apply (span_backup_any (backup (adv l4)) _ [42%N]); [exact (span_backup inp l4 _ _ _ Hs4)|reflexivity]. }
  destruct Hdocp as (l5 & -> & Hs5 & Ho5 & Hdd5). cbn [bind].
  exists (backup l5), txt. split; [reflexivity|]. split; [cbn [backup set_pos l_dd]; congruence|]. split; [exact Htx|].
  split; [cbn [backup set_pos l_out]; congruence|exact Hs5].
Qed.

(* the stretch is used up: the pending text is sent, then EOF or the tag's turn *)
Definition plain_result (l : lx) (x : bstr) (tl : bstr) (st' : lstate) (l' : lx) : Prop :=
  exists txt, is_text_of x txt /\ l_dd l' = l_dd l /\
    ((tl = [] /\ st' = LDone /\ exists e, t_typ e = itemEOF /\ l_out l' = e :: rev txt ++ l_out l) \/
     (tl <> [] /\ st' = LLeftDelim /\ l_out l' = rev txt ++ l_out l /\ span l' [] tl /\ (txt = [] -> l_last l' = l_last l))).

Lemma plain_result_weaken l1 l x tl st' l' : unsent l l1 -> plain_result l1 x tl st' l' -> plain_result l x tl st' l'.
Proof.
  intros (Ho & Hla & Hd) (txt & Htx & Hdd & Hres). exists txt. split; [exact Htx|]. split; [congruence|].
  rewrite Ho, Hla in Hres. exact Hres.
Qed.

(* the result of one scan of lexText, in the Spec's terms: [pcs] are the pieces of the text from here on *)
Definition text_result (l : lx) (s : bstr) (pcs : list bstr) (st' : lstate) (l' : lx) : Prop :=
  exists x rest txt, pcs = x :: rest /\ l_dd l' = l_dd l /\
   ((rest = [] /\ st' = LDone /\ is_text_of x txt /\ exists e, t_typ e = itemEOF /\ l_out l' = e :: rev txt ++ l_out l)
    \/ (exists x' s2, st' = LLineComment /\ is_text_of x' txt /\ l_out l' = rev txt ++ l_out l /\
          (x = x' \/ exists b, ws b = true /\ x = x' ++ [b]) /\ span l' [47%N; 47%N] s2 /\ ((length s2 < length s)%nat /\ suffix_of s2 s) /\
          pieces MLine false [] s2 = Some rest)
    \/ (exists s2, st' = LBlockComment /\ is_text_of x txt /\ l_out l' = rev txt ++ l_out l /\
          span l' [47%N; 42%N] s2 /\ ((length s2 < length s)%nat /\ suffix_of s2 s) /\ pieces (MBlock false) false [] s2 = Some rest)).

Lemma pieces_slash pw cur d s2 : pieces MText pw cur (47%N :: d :: s2) =
  if (d =? 42)%N then
    match s2 with
    | e :: r3 => if (e =? 42)%N && negb (match r3 with f :: _ => (f =? 47)%N | [] => false end) then None
                 else cons_opt (rev cur) (pieces (MBlock false) false [] s2)
    | [] => None
    end
  else if (d =? 47)%N && pw then cons_opt (rev cur) (pieces MLine false [] s2)
  else pieces MText false (47%N :: cur) (d :: s2).
Proof. reflexivity. Qed.

Lemma open_slash pw d s2 : line_open MText pw (47%N :: d :: s2) =
  if (d =? 42)%N then line_open (MBlock false) false s2
  else if (d =? 47)%N && pw then line_open MLine false s2
  else line_open MText false (d :: s2).
Proof. reflexivity. Qed.

(* ---------- a stretch followed by [tl]: the end of the input, or a tag ([tag_or_end], Proofs/LexBodySeg.v) ---------- *)
Section Tail.
Variable tl : bstr.
Hypothesis Htl : tl = [] \/ exists tl', tl = 123%N :: tl'.

(* a multi-byte rune that begins in the stretch ends in it: its bytes are not ASCII *)
Lemma prefix_in : forall (bs T s' : bstr), T ++ tl = bs ++ s' -> Forall (fun x => (128 <= x)%N) bs ->
  exists T', T = bs ++ T' /\ s' = T' ++ tl.
Proof.
  induction bs as [|b bs IHb]; intros T s' E Hall; [exists T; auto|].
  inversion Hall as [|? ? Hb Hall']; subst. destruct T as [|t T0].
  - exfalso. cbn [app] in E. destruct Htl as [Et|(tl' & Et)]; rewrite Et in E; [discriminate|]. injection E as <- _. lia.
  - cbn [app] in E. injection E as -> E. destruct (IHb T0 s' E Hall') as (T' & -> & ->). exists T'. auto.
Qed.

(* reading one rune of the stretch *)
Lemma next_in l w c T : span l w (c :: T ++ tl) ->
  exists r bs T' l', c :: T = bs ++ T' /\ (length T' <= length T)%nat /\ next l = Ok (r, l') /\
    span l' (w ++ bs) (T' ++ tl) /\ unsent l l' /\
    (((c < 128)%N /\ bs = [c] /\ r = Z.of_N c) \/ (Forall (fun x => (128 <= x)%N) bs /\ bs <> [] /\ 128 <= r)).
Proof.
  intros Hs. destruct (next_any l w _ Hs) as (r & bs & s' & l' & E & Hnx & Hs' & Hu & _ & Hcls).
  destruct Hcls as [(E0 & _)|[(c0 & Hc & -> & ->)|(Hall & Hne & Hr)]]; [discriminate E0| |].
  - cbn [app] in E. injection E as <- <-. exists (Z.of_N c), [c], T, l'. auto 10.
  - destruct (prefix_in bs (c :: T) s' E Hall) as (T' & ET & ->). exists r, bs, T', l'.
    split; [exact ET|]. split; [|auto 10].
    apply (f_equal (@length _)) in ET. rewrite app_length in ET. destruct bs; [congruence|]. cbn [length] in ET. lia.
Qed.

(* the Spec's reading of the stretch [T] in front of [tl]: its pieces, and no "//" comment open where a tag begins *)
Definition cut_at (m : cmode) (pw : bool) (cur T : bstr) (pcs : list bstr) : Prop :=
  pieces m pw cur T = Some pcs /\ (tl <> [] -> line_open m pw T = false).

Lemma cut_text_byte c pw cur T pcs : (c =? 47)%N = false ->
  cut_at MText pw cur (c :: T) pcs -> cut_at MText (ws c) (c :: cur) T pcs.
Proof. intros E. unfold cut_at. cbn [pieces line_open]. rewrite E. exact (fun H => H). Qed.

Lemma cut_text_hi : forall bs x pw cur T pcs, Forall (fun x => (128 <= x)%N) (x :: bs) ->
  cut_at MText pw cur ((x :: bs) ++ T) pcs -> cut_at MText false (rev (x :: bs) ++ cur) T pcs.
Proof.
  induction bs as [|y bs IH]; intros x pw cur T pcs Hall H; inversion Hall as [|? ? Hx Hall']; subst;
    apply (cut_text_byte x) in H; try (apply N.eqb_neq; lia); replace (ws x) with false in H by (unfold ws; lia).
  - exact H.
  - apply IH in H; [|exact Hall']. cbn [rev] in *. rewrite <- !app_assoc in *. exact H.
Qed.

Lemma cut_slash_text pw cur T1 pcs :
  match T1 with d :: _ => d <> 42%N /\ (d =? 47)%N && pw = false | [] => True end ->
  cut_at MText pw cur (47%N :: T1) pcs -> cut_at MText false (47%N :: cur) T1 pcs.
Proof.
  destruct T1 as [|d T2]; [intros _ H; exact H|]. intros [H42 H47]. unfold cut_at. rewrite pieces_slash, open_slash.
  apply N.eqb_neq in H42. rewrite H42, H47. exact (fun H => H).
Qed.

Lemma cut_slash_line cur T2 pcs : cut_at MText true cur (47%N :: 47%N :: T2) pcs ->
  exists rest, pcs = rev cur :: rest /\ cut_at MLine false [] T2 rest.
Proof.
  intros [Hp Ho]. change (cons_opt (rev cur) (pieces MLine false [] T2) = Some pcs) in Hp.
  destruct (cons_opt_inv _ _ _ Hp) as (rest & Hr & ->). exists rest. split; [reflexivity|]. split; [exact Hr|exact Ho].
Qed.

Lemma cut_slash_block pw cur T2 pcs : cut_at MText pw cur (47%N :: 42%N :: T2) pcs ->
  exists e T3 rest, T2 = e :: T3 /\ (e =? 42)%N && negb (match T3 with f :: _ => (f =? 47)%N | [] => false end) = false /\
    pcs = rev cur :: rest /\ cut_at (MBlock false) false [] T2 rest.
Proof.
  intros [Hp Ho]. rewrite pieces_slash in Hp. change (42 =? 42)%N with true in Hp. cbv iota in Hp.
  destruct T2 as [|e T3]; [discriminate|].
  destruct ((e =? 42)%N && negb (match T3 with f :: _ => (f =? 47)%N | [] => false end)) eqn:Edoc; [discriminate|].
  destruct (cons_opt_inv _ _ _ Hp) as (rest & Hr & ->). exists e, T3, rest. split; [reflexivity|]. split; [exact Edoc|]. split; [reflexivity|]. split; [exact Hr|exact Ho].
Qed.

(* the result of one scan of lexText over T ++ tl, in the Spec's terms: [pcs] are the pieces of T from here on;
   the stretch is used up, or a comment starts after [x], in the state [st'] with the opener [op] read *)
Definition mix_result (l : lx) (s : bstr) (pcs : list bstr) (st' : lstate) (l' : lx) : Prop :=
  exists x rest, pcs = x :: rest /\
   ((rest = [] /\ plain_result l x tl st' l')
    \/ (exists txt x' s2 op m, l_dd l' = l_dd l /\ is_text_of x' txt /\ l_out l' = rev txt ++ l_out l /\
          ((st' = LLineComment /\ op = [47%N; 47%N] /\ m = MLine /\ (x = x' \/ exists b, ws b = true /\ x = x' ++ [b])) \/
           (st' = LBlockComment /\ op = [47%N; 42%N] /\ m = MBlock false /\ x = x')) /\
          span l' op (s2 ++ tl) /\ ((length s2 < length s)%nat /\ suffix_of s2 s) /\ cut_at m false [] s2 rest)).

Lemma mix_result_weaken l1 l s1 s pcs st' l' :
  unsent l l1 -> (length s1 <= length s)%nat -> suffix_of s1 s -> mix_result l1 s1 pcs st' l' -> mix_result l s pcs st' l'.
Proof.
  intros Hu Hl Hsf (x & rest & Hp & H). exists x, rest. split; [exact Hp|].
  destruct H as [(A & B)|(txt & x' & s2 & op & m & Hdd & B & C & D & E & (F1 & F2) & G)]; [left|right].
  - split; [exact A|]. exact (plain_result_weaken l1 l x tl st' l' Hu B).
  - destruct Hu as (Ho & _ & Hd). exists txt, x', s2, op, m. rewrite <- Ho, <- Hd.
    split; [exact Hdd|]. split; [exact B|]. split; [exact C|]. split; [exact D|]. split; [exact E|]. split; [|exact G].
    split; [lia|exact (suffix_trans _ _ _ F2 Hsf)].
Qed.

(* after a '/': either it is ordinary text (the scan goes on), or a comment starts *)
Lemma slash_step_tl l1 w T1 r0 pcs :
  span l1 (w ++ [47%N]) (T1 ++ tl) -> last_read r0 w -> cut_at MText (pwof r0 l1) (rev w) (47%N :: T1) pcs ->
  (exists lb, slash_inner r0 l1 = Ok (inr lb) /\ span lb (w ++ [47%N]) (T1 ++ tl) /\ unsent l1 lb /\
              cut_at MText false (47%N :: rev w) T1 pcs)
  \/ (exists st' l', slash_inner r0 l1 = Ok (inl (st', l')) /\ mix_result l1 (47%N :: T1) pcs st' l').
Proof.
  intros Hs1 Hlr Hc.
  assert (Htxt : match T1 ++ tl with d :: _ => d <> 42%N /\ (d =? 47)%N && pwof r0 l1 = false | [] => True end ->
                 match T1 with d :: _ => d <> 42%N /\ (d =? 47)%N && pwof r0 l1 = false | [] => True end ->
                 exists lb, slash_inner r0 l1 = Ok (inr lb) /\ span lb (w ++ [47%N]) (T1 ++ tl) /\ unsent l1 lb /\
                   cut_at MText false (47%N :: rev w) T1 pcs).
  { intros H1 H2. destruct (slash_text l1 w _ r0 Hs1 H1) as (lb & Hin & Hsb & Hu). exists lb.
    split; [exact Hin|]. split; [exact Hsb|]. split; [exact Hu|]. exact (cut_slash_text _ _ _ _ H2 Hc). }
  destruct T1 as [|d T2].
  { left. apply Htxt; [|exact I]. cbn [app]. destruct Htl as [->|(tl' & ->)]; [exact I|split; [discriminate|reflexivity]]. }
  destruct (N.eqb_spec d 42) as [->|H42].
  { (* "/*" *) right. destruct (cut_slash_block _ _ _ _ Hc) as (e & T3 & rest & -> & Hdoc & -> & Hc').
    destruct (slash_block l1 w e (T3 ++ tl) r0 Hs1) as (l' & txt & Hin & Hdd & Htx & Ho & Hs').
    { destruct T3; [|exact Hdoc]. destruct Htl as [->|(tl' & ->)]; exact Hdoc. }
    exists LBlockComment, l'. split; [exact Hin|]. rewrite rev_involutive. exists w, rest. split; [reflexivity|]. right.
    exists txt, w, (e :: T3), [47%N; 42%N], (MBlock false). split; [exact Hdd|]. split; [exact Htx|]. split; [exact Ho|].
    split; [right; auto|]. split; [exact Hs'|]. split; [|exact Hc']. split; [cbn [length]; lia|].
    do 2 apply suffix_cons. apply suffix_refl. }
  destruct ((d =? 47)%N && pwof r0 l1) eqn:E47; [|left; apply Htxt; split; auto].
  (* "//" *)
  right. apply andb_prop in E47. destruct E47 as [Ed Hpw]. apply N.eqb_eq in Ed. subst d. rewrite Hpw in Hc.
  destruct (cut_slash_line _ _ _ Hc) as (rest & -> & Hc').
  destruct (slash_line l1 w (T2 ++ tl) r0 Hs1 Hpw Hlr) as (l' & txt & x' & Hin & Hdd & Htx & Ho & Hx & Hs').
  exists LLineComment, l'. split; [exact Hin|]. rewrite rev_involutive. exists w, rest. split; [reflexivity|]. right.
  exists txt, x', T2, [47%N; 47%N], MLine. split; [exact Hdd|]. split; [exact Htx|]. split; [exact Ho|].
  split; [left; auto|]. split; [exact Hs'|]. split; [|exact Hc']. split; [cbn [length]; lia|].
  do 2 apply suffix_cons. apply suffix_refl.
Qed.

(* the stretch is used up: the pending text is sent; at the end of the input EOF follows, at "{" the tag's turn *)
Lemma text_plain_end w l r0 f : span l w tl ->
  exists st' l', lex_text_loop inp ilen 0 (S f) r0 l = Ok (st', l') /\ plain_result l w tl st' l'.
Proof.
  intros Hs. rewrite lex_text_loop_S.
  destruct (next_any l w tl Hs) as (r & bs & s' & l1 & E & Hnx & Hs1 & (Ho1 & Hla1 & Hdd1) & Hwd & Hcls). rewrite Hnx. cbn [bind].
  pose proof (span_backup_any l1 w bs s' Hs1 Hwd) as Hsb. rewrite <- E, <- (app_nil_r w) in Hsb.
  destruct (met_span (backup l1) w [] tl Hsb) as (l3 & txt & Hm & Hs3 & Htx & Ho3 & Hdd3 & Hla3).
  change (Z.of_nat (length (@nil N))) with 0 in Hm. cbn [backup set_pos l_out l_dd l_last] in Ho3, Hdd3, Hla3.
  assert (Hr : (tl = [] /\ r = eof) \/ (tl <> [] /\ r = 123)).
  { destruct Htl as [Et|(tl' & Et)]; rewrite Et in E; [left|right]; (split; [rewrite Et; try discriminate; reflexivity|]).
    - destruct Hcls as [(_ & Hr)|[(c & _ & -> & _)|(_ & Hne & _)]]; [exact Hr|discriminate E|destruct bs; [congruence|discriminate E]].
    - destruct Hcls as [(E0 & _)|[(c & _ & -> & ->)|(Hall & Hne & _)]]; [congruence|injection E as <- _; reflexivity|].
      exfalso. destruct bs as [|x bs]; [congruence|]. injection E as <- _. inversion Hall. lia. }
  destruct Hr as [(Et & ->)|(Hne & ->)].
  - change (eof =? 47) with false. cbv iota. cbn [bind]. change (eof =? 123) with false. change (eof =? 125) with false.
    change (eof =? eof) with true. cbv iota. rewrite Hm. cbn [bind].
    destruct (emit_span inp 0 itemEOF l3 [] tl Hs3) as (He & _). rewrite He. cbn [bind].
    eexists _, _. split; [reflexivity|]. exists txt. split; [exact Htx|]. split; [cbn [emitted l_dd]; congruence|]. left.
    split; [exact Et|]. split; [reflexivity|]. eexists. split; [|cbn [emitted l_out]; rewrite Ho3, Ho1; reflexivity]. reflexivity.
  - change (123 =? 47) with false. cbv iota. cbn [bind]. change (123 =? 123) with true. cbv iota. rewrite Hm. cbn [bind].
    exists LLeftDelim, l3. split; [reflexivity|]. exists txt. split; [exact Htx|]. split; [congruence|]. right.
    rewrite Ho3, Ho1. split; [exact Hne|]. split; [reflexivity|]. split; [reflexivity|]. split; [exact Hs3|].
    intros Et. rewrite (Hla3 Et). exact Hla1.
Qed.

(* lexText over the stretch, up to the first comment in it, or to its end *)
Lemma text_loop_tl : forall fuel T w l r0 pcs, span l w (T ++ tl) -> (length T + length tl < fuel)%nat -> plain T ->
  last_read r0 w -> cut_at MText (pwof r0 l) (rev w) T pcs ->
  exists st' l', lex_text_loop inp ilen 0 fuel r0 l = Ok (st', l') /\ mix_result l T pcs st' l'.
Proof.
  induction fuel as [|f IH]; intros T w l r0 pcs Hs Hf Hpl Hlr Hc; [lia|]. destruct T as [|c T1].
  { destruct Hc as [Hp _]. cbn [pieces] in Hp. rewrite rev_involutive in Hp. injection Hp as <-.
    destruct (text_plain_end w l r0 f Hs) as (st' & l' & H1 & H2). exists st', l'. split; [exact H1|].
    exists w, []. split; [reflexivity|]. left. split; [reflexivity|exact H2]. }
  inversion Hpl as [|c' s' (Hc0 & Hc1 & Hc2) Hpl1]; subst. cbn [length] in Hf.
  destruct (next_in l w c T1 Hs) as (r & bs & T' & l1 & ET & Hlen & Hnx & Hs1 & Hu & Hcls).
  rewrite <- (pwof_last r0 l l1 Hu) in Hc.
  assert (Hgo : forall w1 r1 lb, span lb w1 (T' ++ tl) -> unsent l lb -> last_read r1 w1 -> r1 <> 0 -> plain T' ->
            cut_at MText (gen_isSpaceEOL r1) (rev w1) T' pcs ->
            exists st' l', lex_text_loop inp ilen 0 f r1 lb = Ok (st', l') /\ mix_result l (c :: T1) pcs st' l').
  { intros w1 r1 lb Hsb Hub Hlr1 Hr1 Hpl' Hc'. rewrite <- (pwof_nz r1 lb Hr1) in Hc'.
    destruct (IH T' w1 lb r1 pcs Hsb ltac:(lia) Hpl' Hlr1 Hc') as (st' & l' & Hrun & Hres). exists st', l'. split; [exact Hrun|].
    apply (mix_result_weaken lb l T' (c :: T1)); [exact Hub|cbn [length]; lia|rewrite ET; apply suffix_app, suffix_refl|exact Hres]. }
  destruct Hcls as [(Hlt & -> & ->)|(Hall & Hne & Hr)].
  - cbn [app] in ET. injection ET as <-. destruct (N.eqb_spec c 47) as [->|H47].
    + rewrite lex_text_loop_S, Hnx. cbn [bind]. change (Z.of_N 47 =? 47) with true. cbv iota.
      destruct (slash_step_tl l1 w T1 r0 pcs Hs1 Hlr Hc) as [(lb & Hin & Hsb & Hub & Hcb)|(st' & l' & Hin & Hres)]; rewrite Hin; cbn [bind].
      * change (Z.of_N 47 =? 123) with false. change (Z.of_N 47 =? 125) with false. change (Z.of_N 47 =? eof) with false. cbv iota.
        apply (Hgo (w ++ [47%N])); [exact Hsb|exact (unsent_trans _ _ _ Hu Hub)|apply last_read_byte|discriminate|exact Hpl1|];
          [discriminate|]. rewrite rev_unit. exact Hcb.
      * exists st', l'. split; [reflexivity|]. exact (mix_result_weaken l1 l _ _ pcs st' l' Hu (le_n _) (suffix_refl _) Hres).
    + rewrite (lex_text_loop_other f r0 l _ l1 Hnx) by (unfold eof; lia).
      apply (Hgo (w ++ [c])); [exact Hs1|exact Hu|apply last_read_byte; exact Hc0|lia|exact Hpl1|].
      rewrite spaceeol_byte, rev_unit. apply (cut_text_byte c (pwof r0 l1)); [lia|exact Hc].
  - rewrite (lex_text_loop_other f r0 l _ l1 Hnx) by (unfold eof; lia).
    apply (Hgo (w ++ bs)); [exact Hs1|exact Hu|apply last_read_hi; assumption|lia| |].
    + unfold plain in *. rewrite ET in Hpl. apply Forall_app in Hpl. tauto.
    + rewrite (spaceeol_hi r Hr), rev_app_distr. destruct bs as [|x bs]; [congruence|]. apply (cut_text_hi bs x (pwof r0 l1)); [exact Hall|].
      rewrite <- ET. exact Hc.
Qed.

End Tail.

Lemma cut_at_nil m pw cur T pcs : pieces m pw cur T = Some pcs -> cut_at [] m pw cur T pcs.
Proof. intros H. split; [exact H|]. intros E. destruct (E eq_refl). Qed.

(* without a tag behind the stretch the result is [text_result] *)
Lemma mix_result_nil l s pcs st' l' : mix_result [] l s pcs st' l' -> text_result l s pcs st' l'.
Proof.
  intros (x & rest & Hp & [(A & txt & Htx & Hdd & B)|(txt & x' & s2 & op & m & Hdd & B & C & D & E & F & G & _)]); exists x, rest, txt;
    (split; [exact Hp|]); (split; [exact Hdd|]).
  - left. destruct B as [(_ & B & C)|(B & _)]; [auto|congruence].
  - rewrite app_nil_r in E. right. destruct D as [(-> & -> & -> & D)|(-> & -> & -> & ->)]; [left; exists x', s2|right; exists s2]; auto 10.
Qed.

(* after a '/': either it is ordinary text (the scan goes on), or a comment starts *)
Lemma slash_step l l1 w s1 r0 pcs :
  span l1 (w ++ [47%N]) s1 -> l_out l1 = l_out l -> l_last l1 = l_last l -> l_dd l1 = l_dd l ->
  (r0 = 0 -> w = []) -> (r0 <> 0 -> exists w' b, w = w' ++ [b] /\ (gen_isSpaceEOL r0 = true -> ws b = true)) ->
  pieces MText (pwof r0 l) (rev w) (47%N :: s1) = Some pcs ->
  (exists lb, slash_inner r0 l1 = Ok (inr lb) /\ span lb (w ++ [47%N]) s1 /\ l_out lb = l_out l /\ l_last lb = l_last l /\ l_dd lb = l_dd l /\
              pieces MText false (47%N :: rev w) s1 = Some pcs)
  \/ (exists st' l', slash_inner r0 l1 = Ok (inl (st', l')) /\ text_result l (47%N :: s1) pcs st' l').
Proof.
  intros Hs1 Ho1 Hla1 Hdd1 Hr0 Hr1 Hpc. assert (Hu : unsent l l1) by (repeat split; assumption).
  rewrite <- (pwof_last r0 l l1 Hu) in Hpc. rewrite <- (app_nil_r s1) in Hs1.
  destruct (slash_step_tl [] (or_introl eq_refl) l1 w s1 r0 pcs Hs1 (conj Hr0 Hr1) (cut_at_nil _ _ _ _ _ Hpc))
    as [(lb & Hin & Hsb & Hub & Hcb & _)|(st' & l' & Hin & Hres)]; [left|right].
  - rewrite app_nil_r in Hsb. exists lb. destruct (unsent_trans _ _ _ Hu Hub) as (A & B & C). auto 10.
  - exists st', l'. split; [exact Hin|]. apply mix_result_nil.
    exact (mix_result_weaken [] l1 l _ _ pcs st' l' Hu (le_n _) (suffix_refl _) Hres).
Qed.

Lemma text_loop_run : forall n s, (length s <= n)%nat -> forall w l r0 fuel pcs,
  span l w s -> (length s < fuel)%nat -> plain s ->
  (r0 = 0 -> w = []) -> (r0 <> 0 -> exists w' b, w = w' ++ [b] /\ (gen_isSpaceEOL r0 = true -> ws b = true)) ->
  pieces MText (pwof r0 l) (rev w) s = Some pcs ->
  exists st' l', lex_text_loop inp ilen 0 fuel r0 l = Ok (st', l') /\ text_result l s pcs st' l'.
Proof.
  intros _ s _ w l r0 fuel pcs Hs Hf Hpl Hr0 Hr1 Hpc. rewrite <- (app_nil_r s) in Hs.
  destruct (text_loop_tl [] (or_introl eq_refl) fuel s w l r0 pcs Hs ltac:(cbn [length]; lia) Hpl (conj Hr0 Hr1) (cut_at_nil _ _ _ _ _ Hpc))
    as (st' & l' & Hrun & Hres).
  exists st', l'. split; [exact Hrun|exact (mix_result_nil _ _ _ _ _ Hres)].
Qed.

End BT.
