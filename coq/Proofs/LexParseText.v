(* Text level of C17 / C01: scanner model and expression parser model composed on the text the printer
   model writes.

     print_node e = Some txt   ->   lexExpr(txt) = items   ->   parseExpr(items) = e'   with  e' = e up to positions.

   Pieces: lex_expr_print (Proofs/LexPrintTop.v: the scanner sends the items of tokens_of e, types and texts,
   then the error item at end of input), parse_print_roundtrip (Proofs/ExprParserProofs.v, token level, positions
   as tokens_of assigns them), parse_expr_top_strip (Proofs/ExprParserStrip.v: the parser does not look at positions),
   parse_expr_agree (Proofs/ExprParserFuel.v: results do not depend on the budget once it suffices) and
   parse_expr_entry_post (Proofs/ParserProofs.v: the entry point's budget suffices). *)
From Soy Require Import Model.Bytes Model.Num Model.Values Model.Outcome Model.Ast Model.Token Model.NumLit Model.Quote
  Model.ExprParser Model.Parser Model.AstPrint Generated.Tables Model.Lexer Spec.ExprSyntax
  Proofs.ExprParserRules Proofs.ExprParserProofs Proofs.ExprParserStrip Proofs.ExprParserFuel
  Proofs.ParserMeasure Proofs.ParserProofs Proofs.LexerPrim Proofs.LexerProofs Proofs.LexParseBridge
  Proofs.LexTokens Proofs.LexPrintMain Proofs.LexPrintTop.
From Coq Require Import ZifyBool Lia.
Open Scope N_scope.

(* parse.Expr(str): lexExpr, then parseExpr(0) under the entry point's budget; what the caller gets *)
Definition parse_expr_string (uni_letter uni_digit : Z -> bool) (s : bstr) : outcome (presult node) :=
  match lex_items uni_letter uni_digit (lex_budget s) true s with
  | Ok ts => Ok (po_result (soy_expr (N.of_nat (length s)) ts))
  | Err m => Err m | Crash m => Crash m | Diverge => Diverge | OutOfFuel => OutOfFuel | OutOfModel => OutOfModel
  end.

(* ---------- items that agree in type and text agree after erasing positions ---------- *)
Lemma tv_strip ts1 ts2 : map tv ts1 = map tv ts2 -> map strip_tok ts1 = map strip_tok ts2.
Proof.
  intros H. assert (G : forall ts, map strip_tok ts = map (fun p => tk (fst p) 0 (snd p)) (map tv ts)).
  { intros ts. rewrite map_map. reflexivity. }
  rewrite (G ts1), (G ts2), H. reflexivity.
Qed.

Lemma closer_error t : t_typ t = itemError -> closer t = true.
Proof. intros H. unfold closer. rewrite H. vm_compute. reflexivity. Qed.

Section Text.
Variable uni_letter uni_digit : Z -> bool.
Hypothesis letter_ascii : forall c, (c < 128)%N -> uni_letter (Z.of_N c) = ((65 <=? c) && (c <=? 90) || (97 <=? c) && (c <=? 122))%N.
Hypothesis digit_ascii : forall c, (c < 128)%N -> uni_digit (Z.of_N c) = digit_b c.
Hypothesis letter_eof : uni_letter (-1)%Z = false.
Hypothesis digit_eof : uni_digit (-1)%Z = false.

(* the entry point's result on an item list on which SOME budget gives a tree *)
Lemma soy_expr_of_big_fuel inlen ts F e st :
  items_wf inlen ts -> parse_expr_top F ts = POk e st -> po_result (soy_expr inlen ts) = POk e st.
Proof.
  intros Hw HF.
  destruct (parse_expr_entry_post true inlen ts (expr_fuel ts) Hw ltac:(unfold expr_fuel; lia)) as (Hte & _).
  unfold soy_expr, parse_expr_entry in *. unfold parse_expr_top in HF.
  rewrite (parse_expr_agree (expr_fuel ts) F 0 (pst_init ts)), HF; [reflexivity| |rewrite HF; discriminate].
  intros E. rewrite E in Hte. exact Hte.
Qed.

(* C17 at text level: the string the printer writes for a well-formed expression, put through the scanner
   model (lexExpr) and the parser model (parse.Expr's entry point, its own budget), gives back the
   expression, up to node positions *)
Theorem text_roundtrip e txt : wf_expr e -> lex_ok e -> print_node e = Some txt ->
  exists e' st', parse_expr_string uni_letter uni_digit txt = Ok (POk e' st') /\ strip_pos e' = strip_pos e.
Proof.
  intros Hwf Hlo Hp.
  destruct (lex_expr_print uni_letter uni_digit letter_ascii digit_ascii letter_eof digit_eof e txt Hwf Hlo Hp)
    as (ts & err & Hlex & Hm & Herr).
  set (all := ts ++ [err]) in *.
  (* items, positions erased = the items of the position-free tree followed by a closer *)
  assert (Hall : map strip_tok all = tokens_of (strip_pos e) ++ [strip_tok err]).
  { unfold all. rewrite map_app. cbn [map]. f_equal. unfold tokens_of. rewrite show_strip. apply tv_strip. exact Hm. }
  assert (Hc : closer (strip_tok err) = true) by (apply closer_error; exact Herr).
  destruct (parse_print_roundtrip (strip_pos e) (strip_tok err) [] (wf_strip e Hwf) Hc) as (st0 & f0 & _ & HF).
  specialize (HF f0 (le_n _)). rewrite <- Hall, <- parse_expr_top_strip in HF.
  destruct (zr_ok_inv _ _ _ _ HF) as (e' & st' & Hrun & He' & _).
  (* the scanner's items are well-formed for the parser *)
  destruct (lex_items_total _ _ letter_eof digit_eof true txt) as (ts0 & Hl0 & Hscan).
  rewrite Hlex in Hl0. injection Hl0 as <-.
  pose proof (scan_items_wf_all _ _ Hscan) as Hiw.
  exists e', st'. split; [|exact He'].
  unfold parse_expr_string. rewrite Hlex. f_equal.
  apply (soy_expr_of_big_fuel _ all f0 e' st' Hiw Hrun).
Qed.

(* string-level injectivity: two well-formed (and lexically well-formed) expressions that print the same
   string are the same expression up to positions *)
Theorem print_string_injective e1 e2 txt :
  wf_expr e1 -> lex_ok e1 -> wf_expr e2 -> lex_ok e2 ->
  print_node e1 = Some txt -> print_node e2 = Some txt -> strip_pos e1 = strip_pos e2.
Proof.
  intros W1 L1 W2 L2 P1 P2.
  destruct (text_roundtrip e1 txt W1 L1 P1) as (a & sa & Ra & Ea).
  destruct (text_roundtrip e2 txt W2 L2 P2) as (c & sc & Rc & Ec).
  rewrite Ra in Rc. injection Rc as -> _. congruence.
Qed.

End Text.

(* with the unicode tables regenerated from the toolchain: the functions the model runner executes *)
Theorem text_roundtrip_tbl e txt : wf_expr e -> lex_ok e -> print_node e = Some txt ->
  exists e' st', parse_expr_string is_letter_tbl is_digit_tbl txt = Ok (POk e' st') /\ strip_pos e' = strip_pos e.
Proof.
  destruct tables_ascii as [Hl Hd]. destruct tables_eof as [El Ed].
  apply (text_roundtrip is_letter_tbl is_digit_tbl Hl Hd El Ed).
Qed.

Theorem print_string_injective_tbl e1 e2 txt :
  wf_expr e1 -> lex_ok e1 -> wf_expr e2 -> lex_ok e2 ->
  print_node e1 = Some txt -> print_node e2 = Some txt -> strip_pos e1 = strip_pos e2.
Proof.
  destruct tables_ascii as [Hl Hd]. destruct tables_eof as [El Ed].
  apply (print_string_injective is_letter_tbl is_digit_tbl Hl Hd El Ed).
Qed.
