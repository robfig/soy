(* C16, json: the text written for ANY value contains no raw < > & (escapeHTML), at any depth. *)
From Coq Require Import Lia ZifyBool.
From Soy Require Import Model.Bytes Generated.Tables Model.Utf8 Model.Num Model.Outcome Model.Values Model.Escape Model.Directives
  Model.JsEscape Model.JsonEncode Spec.Html Spec.Codec Spec.Json
  Proofs.Utf8Proofs Proofs.MsgIdProofs Proofs.ValueProofs Proofs.CodecProofs Proofs.CodecJsonNum Proofs.CodecJson.
Open Scope N_scope.

Definition num_char (c : N) : Prop := is_digit_byte c \/ c = 45 \/ c = 46.
(* [fc]: Forall num_char / html_inert of a closed byte list, element by element *)
Ltac fc := repeat (apply Forall_cons; [unfold num_char, is_digit_byte, html_inert; lia|]); try apply Forall_nil.

Lemma num_char_inert c : num_char c -> html_inert c.
Proof. unfold num_char, is_digit_byte, html_inert. lia. Qed.

Lemma dec_of_Z_num_chars z : Forall num_char (dec_of_Z z).
Proof. eapply Forall_impl; [|apply dec_of_Z_chars]. unfold num_char. tauto. Qed.

Lemma frac_digits_digits f : forall num den, (0 <= num < den)%Z -> Forall is_digit_byte (frac_digits f num den).
Proof.
  induction f as [|f IH]; intros num den H; cbn [frac_digits]; [constructor|].
  destruct (num =? 0)%Z; [constructor|].
  assert (0 <= num * 10 / den < 10)%Z by (split; [apply Z.div_pos; lia|apply Z.div_lt_upper_bound; lia]).
  constructor; [unfold is_digit_byte; lia|]. apply IH. apply Z.mod_pos_bound. lia.
Qed.

Lemma fl_to_string_chars x s : fl_to_string_dom x = Some s -> x <> FNaN -> (forall n, x <> FInf n) -> Forall num_char s.
Proof.
  destruct x as [|n|n|m e]; cbn [fl_to_string_dom]; cbv zeta.
  - congruence.
  - intros _ _ H. specialize (H n). congruence.
  - intros H _ _. destruct n; apply some_inj in H; subst s; fc.
  - intros H _ _.
    assert (Forall num_char (if (m <? 0)%Z then [45] else [])) as Hsign by (destruct (m <? 0)%Z; fc).
    destruct (Z.leb_spec 0 e) as [He|He].
    + destruct (_ <? 1000000)%Z; [|discriminate]. apply some_inj in H. subst s. apply Forall_app. split; [exact Hsign|apply dec_of_Z_num_chars].
    + destruct (e <? -9)%Z; [discriminate|]. destruct (_ <? 1000000)%Z; [|discriminate]. apply some_inj in H. subst s.
      apply Forall_app. split; [exact Hsign|]. apply Forall_app. split; [apply dec_of_Z_num_chars|].
      apply Forall_app. split; [fc|].
      eapply Forall_impl; [|apply frac_digits_digits; apply Z.mod_pos_bound, Z.pow_pos_nonneg; lia]. unfold num_char. tauto.
Qed.

Lemma Forall_join (P : N -> Prop) (sep : bstr) items : Forall P sep -> Forall (Forall P) items -> Forall P (join sep items).
Proof.
  intros Hsep. induction 1 as [|s r Hs Hr IH]; [constructor|]. destruct r as [|s2 r2]; [exact Hs|].
  change (join sep (s :: s2 :: r2)) with (s ++ sep ++ join sep (s2 :: r2)). apply Forall_app. split; [exact Hs|]. apply Forall_app. split; assumption.
Qed.

Lemma Forall_sort_kv {A} (Q : bstr * A -> Prop) l : Forall Q l -> Forall Q (json_sort_kv l).
Proof.
  induction 1 as [|[k x] r Hkx Hr IH]; [constructor|]. unfold json_sort_kv in *. cbn [fold_right fst snd].
  revert IH. generalize (fold_right (fun (kx : bstr * A) acc => json_insert_kv (fst kx) (snd kx) acc) [] r). intros acc Hacc.
  induction acc as [|[k' x'] acc IHa]; [repeat constructor; exact Hkx|]. cbn [json_insert_kv]. inversion Hacc; subst.
  destruct (bstr_leb k k'); constructor; auto.
Qed.

Theorem json_encode_inert nn : forall v s, json_encode nn v = Ok s -> Forall html_inert s.
Proof.
  apply (value_ind2 (fun v => forall s, json_encode nn v = Ok s -> Forall html_inert s)).
  - intros s H. injection H as <-. fc.
  - intros s H. injection H as <-. fc.
  - intros x s H. destruct x; injection H as <-; fc.
  - intros z s H. injection H as <-. eapply Forall_impl; [|apply dec_of_Z_num_chars]. apply num_char_inert.
  - intros x s H. cbn [json_encode] in H. unfold json_float in H.
    destruct x as [|n|n|m e]; try discriminate.
    + destruct (fl_to_string_dom (FZero n)) as [t|] eqn:E; [|discriminate]. injection H as <-.
      eapply Forall_impl; [|eapply fl_to_string_chars; [exact E|discriminate|intros; discriminate]]. apply num_char_inert.
    + destruct (fl_to_string_dom (FFin m e)) as [t|] eqn:E; [|discriminate]. injection H as <-.
      eapply Forall_impl; [|eapply fl_to_string_chars; [exact E|discriminate|intros; discriminate]]. apply num_char_inert.
  - intros t s H. injection H as <-. apply json_string_inert.
  - intros id l IH s H. rewrite json_encode_list in H. destruct (is_nil_coll nn id l).
    { injection H as <-. fc. }
    apply bind_ok in H as (items & Hitems & [= <-]). apply enc_items_Forall2 in Hitems.
    constructor; [unfold html_inert; lia|]. apply Forall_app. split; [|fc].
    apply Forall_join; [fc|].
    induction Hitems as [|x sx l items Hsx _ IHl]; [constructor|].
    apply Forall_cons_iff in IH as [IHx IHr]. constructor; [apply IHx, Hsx|apply IHl, IHr].
  - intros id m IH s H. rewrite json_encode_map in H. destruct (is_nil_coll nn id m).
    { injection H as <-. fc. }
    apply bind_ok in H as (items & Hitems & [= <-]). apply enc_members_Forall2 in Hitems.
    constructor; [unfold html_inert; lia|]. apply Forall_app. split; [|fc].
    apply Forall_join; [fc|]. apply Forall_map, Forall_sort_kv.
    induction Hitems as [|kx ks m items [_ Hsx] _ IHm]; [constructor|].
    apply Forall_cons_iff in IH as [IHx IHr]. constructor; [|apply IHm, IHr].
    unfold json_member. apply Forall_app. split; [apply json_string_inert|].
    apply Forall_app. split; [fc|apply IHx, Hsx].
Qed.
