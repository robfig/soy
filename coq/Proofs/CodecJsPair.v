(* C16 / C14: the escaper soy calls for the inside of a JavaScript string literal
   (Model/JsEscape.v js_escape_soy).  With [pair = true] (internal/jsescape: a
   non-printable rune above U+FFFF is written as its surrogate pair) the literal
   reads back as the value for EVERY valid UTF-8 string; with [pair = false] it
   is text/template's escaper and the guard of CodecProofs.jsstr_roundtrip_q remains. *)
From Coq Require Import Lia ZifyBool.
From Soy Require Import Model.Bytes Generated.Tables Model.Utf8 Model.Outcome Model.Escape Model.Directives Model.JsEscape
  Spec.Html Spec.Codec Proofs.Utf8Proofs Proofs.CodecProofs.
Open Scope N_scope.

Lemma js_escape_soy_false_aux is_print s : forall k, js_escape_soy_aux false is_print k s = js_escape_aux is_print k s.
Proof.
  induction s as [|c r IH]; intros k; [reflexivity|]. cbn [js_escape_soy_aux js_escape_aux].
  destruct k as [|k]; [|apply IH]. destruct (c <? 128).
  - destruct (js_ascii_escape c); rewrite IH; reflexivity.
  - rewrite IH. unfold js_rune_piece_soy, js_rune_piece. cbn [andb]. reflexivity.
Qed.

Lemma js_escape_soy_false is_print s : js_escape_soy false is_print s = js_escape is_print s.
Proof. apply js_escape_soy_false_aux. Qed.

Section JsPair.
  Variable pair : bool.
  Variable is_print : N -> bool.
  Hypothesis is_print_ls : is_print 8232 = false.
  Hypothesis is_print_ps : is_print 8233 = false.
  Variable q : N.
  Hypothesis Hq : q = 39 \/ q = 34.

  Definition pair_text (r : N) : bstr := (92 :: 117 :: hex4 (hi_surrogate r)) ++ (92 :: 117 :: hex4 (lo_surrogate r)).
  Definition use_pair (r : N) : bool := pair && (65536 <=? r) && negb (is_print r) && negb (r <? 128).

  Definition js_piece_soy (r : N) : bstr := if use_pair r then pair_text r else js_piece is_print r.

  Lemma js_escape_soy_rune r X : valid_scalar r ->
    js_escape_soy_aux pair is_print 0 (encode_rune r ++ X) = js_piece_soy r ++ js_escape_soy_aux pair is_print 0 X.
  Proof.
    intros Hv. unfold js_piece_soy, use_pair, js_piece. destruct (r <? 128) eqn:E128.
    - rewrite andb_false_r. rewrite encode_rune_ascii by lia. cbn [app js_escape_soy_aux]. rewrite E128. unfold js_piece_ascii.
      destruct (js_ascii_escape r); reflexivity.
    - destruct (rune_at_head r X Hv ltac:(lia)) as (c0 & tl & -> & Ec0 & Hd & Ht).
      cbn [app js_escape_soy_aux]. rewrite Ec0. unfold js_rune_piece_soy, rune_width. rewrite Hd, Ht.
      cbn [snd Nat.pred]. rewrite (skip_app (js_escape_soy_aux pair is_print)) by reflexivity.
      destruct (is_print r); [now rewrite andb_false_r|].
      cbn [negb]. rewrite !andb_true_r. destruct (pair && (65536 <=? r)); reflexivity.
  Qed.

  Lemma hi_lo_rune r : 65536 <= r -> r <= 1114111 ->
    is_high (hi_surrogate r) = true /\ is_low (lo_surrogate r) = true /\ hi_surrogate r < 65536 /\ lo_surrogate r < 65536 /\
    65536 + (hi_surrogate r - 55296) * 1024 + (lo_surrogate r - 56320) = r.
  Proof. intros H1 H2. unfold is_high, is_low, in_range, hi_surrogate, lo_surrogate. lia. Qed.

  Lemma js_read_u_hi hi h1 h2 h3 h4 v Y out hi' : hexval4 h1 h2 h3 h4 = Some v -> emit_tok hi (TUnit v) = (out, hi') ->
    js_read_aux q 0 hi (92 :: 117 :: h1 :: h2 :: h3 :: h4 :: Y) = option_map (app out) (js_read_aux q 0 hi' Y).
  Proof.
    intros Hh He. apply (js_read_step q hi (TUnit v) 92 [117; h1; h2; h3; h4] Y out hi'); [|exact He].
    cbn [app length]. apply (js_tok_u q Hq). exact Hh.
  Qed.

  Lemma js_read_pair r Y : valid_scalar r -> 65536 <= r ->
    js_read_aux q 0 None (pair_text r ++ Y) = option_map (app (encode_rune r)) (js_read_aux q 0 None Y).
  Proof.
    intros Hv Hr. assert (r <= 1114111) as Hmax by (unfold valid_scalar in Hv; lia).
    destruct (hi_lo_rune r Hr Hmax) as (Hhi & Hlo & Hh16 & Hl16 & Hsum).
    unfold pair_text, hex4. rewrite <- app_assoc. cbn [app].
    rewrite (js_read_u_hi None _ _ _ _ (hi_surrogate r) _ [] (Some (hi_surrogate r))).
    2:{ apply hexval4_hex4. exact Hh16. }
    2:{ cbn [emit_tok]. rewrite Hhi. reflexivity. }
    rewrite (js_read_u_hi (Some (hi_surrogate r)) _ _ _ _ (lo_surrogate r) _ (encode_rune r) None).
    2:{ apply hexval4_hex4. exact Hl16. }
    2:{ cbn [emit_tok]. rewrite Hlo, Hsum. reflexivity. }
    destruct (js_read_aux q 0 None Y); reflexivity.
  Qed.

  Lemma js_read_piece_soy r Y : valid_scalar r -> (pair = true \/ r < 65536 \/ is_print r = true) ->
    js_read_aux q 0 None (js_piece_soy r ++ Y) = option_map (app (encode_rune r)) (js_read_aux q 0 None Y).
  Proof.
    intros Hv Hg. unfold js_piece_soy. destruct (use_pair r) eqn:Eu.
    - apply js_read_pair; [exact Hv|]. unfold use_pair in Eu. lia.
    - apply (js_read_piece is_print is_print_ls is_print_ps q Hq); [exact Hv|].
      unfold use_pair in Eu. destruct Hg as [->|Hg]; [|exact Hg].
      cbn [andb] in Eu. destruct (is_print r); [right; reflexivity|]. left. lia.
  Qed.

  Theorem jsstr_roundtrip_soy_q s : utf8_valid s = true ->
    Forall (fun r => pair = true \/ r < 65536 \/ is_print r = true) (runes s) ->
    js_read_literal_q q (js_escape_soy pair is_print s) = Some s.
  Proof.
    unfold js_read_literal_q, js_escape_soy. revert s.
    apply (utf8_valid_ind (fun s => Forall (fun r => pair = true \/ r < 65536 \/ is_print r = true) (runes s) ->
                                    js_read_aux q 0 None (js_escape_soy_aux pair is_print 0 s) = Some s)).
    - intros _. reflexivity.
    - intros r X Hv HX IH Hg. rewrite runes_rune in Hg by exact Hv. inversion Hg as [|? ? Hg1 Hg2]; subst.
      rewrite js_escape_soy_rune by exact Hv. rewrite js_read_piece_soy by assumption. rewrite IH by exact Hg2. reflexivity.
  Qed.

  (* composition with truncate, as CodecProofs.chain_truncate_jsstr *)
  Theorem chain_truncate_jsstr_soy s n e out : utf8_valid s = true ->
    Forall (fun r => pair = true \/ r < 65536 \/ is_print r = true) (runes s) ->
    truncate s n e = Ok out ->
    js_read_literal_q q (js_escape_soy pair is_print out) = Some out.
  Proof.
    intros Hv Hg Ht.
    destruct (Z.leb_spec (Z.of_nat (length s)) n) as [Hfit|Hcut].
    - rewrite truncate_fits in Ht by exact Hfit. injection Ht as <-. apply jsstr_roundtrip_soy_q; assumption.
    - destruct (truncate_cut s n e out Hcut Ht) as (k & c & -> & _ & _ & Hn & Hrs & _ & _ & Hvalid).
      apply jsstr_roundtrip_soy_q; auto.
      assert (utf8_valid (take k s) = true) as Hvk by (eapply utf8_valid_take; eauto).
      rewrite runes_app by exact Hvk. apply Forall_app. split.
      + rewrite Forall_forall in *. intros r Hr. apply Hg. eapply runes_take; eauto.
      + destruct (trunc_ell n e); [repeat constructor; lia|constructor].
  Qed.
End JsPair.

(* no line feed, carriage return, < > & = in the escaped text, for every byte string *)
Theorem js_escape_soy_inert pair is_print s : Forall js_inert (js_escape_soy pair is_print s).
Proof.
  unfold js_escape_soy. generalize 0%nat as k. induction s as [|c r IH]; intros k; [constructor|].
  cbn [js_escape_soy_aux]. destruct k as [|k]; [|apply IH].
  destruct (c <? 128) eqn:E128.
  - destruct (js_ascii_escape c) as [e|] eqn:Ee.
    + apply Forall_app. split; [eapply js_ascii_escape_inert, Ee|apply IH].
    + constructor; [|apply IH]. revert Ee. unfold js_ascii_escape, js_inert. brk; try discriminate. lia.
  - apply Forall_app. split; [|apply IH].
    unfold js_rune_piece_soy. destruct (decode_rune (c :: r)) as [ru w] eqn:Hd.
    destruct (is_print ru); [|destruct (pair && (65536 <=? ru))].
    + eapply Forall_impl; [|eapply decode_rune_take_high; [exact Hd|exists c, r; split; [reflexivity|lia]]].
      cbn. unfold js_inert. intros; lia.
    + unfold hex4. cbn [app].
      repeat (constructor; [first [apply hexdigit_inert, mod16_lt | unfold js_inert; lia]|]). constructor.
    + repeat (constructor; [unfold js_inert; lia|]). apply fmt_04X_inert.
Qed.

(* the repaired escaper, instantiated with Go's unicode.IsPrint: no guard *)
Theorem jsstr_roundtrip_repaired s : utf8_valid s = true -> js_read_literal (js_escape_soy true is_print_tbl s) = Some s.
Proof.
  intros Hv. apply (jsstr_roundtrip_soy_q true is_print_tbl is_print_tbl_ls is_print_tbl_ps 39 (or_introl eq_refl)); [exact Hv|].
  apply Forall_forall. intros; left; reflexivity.
Qed.

Theorem jsstr_roundtrip_repaired_dq s : utf8_valid s = true -> js_read_literal_q 34 (js_escape_soy true is_print_tbl s) = Some s.
Proof.
  intros Hv. apply (jsstr_roundtrip_soy_q true is_print_tbl is_print_tbl_ls is_print_tbl_ps 34 (or_intror eq_refl)); [exact Hv|].
  apply Forall_forall. intros; left; reflexivity.
Qed.

(* the witness of finding jsstr-astral-nonprint-5hex reads back under the repair *)
Example jsstr_pair_witness :
  js_escape_soy true is_print_tbl [243; 176; 128; 128; 122] = [92; 117; 68; 66; 56; 48; 92; 117; 68; 67; 48; 48; 122]
  /\ js_read_literal [92; 117; 68; 66; 56; 48; 92; 117; 68; 67; 48; 48; 122] = Some [243; 176; 128; 128; 122].
Proof. split; vm_compute; reflexivity. Qed.
