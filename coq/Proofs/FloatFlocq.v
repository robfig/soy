(* Num.round53 is Flocq's rounding to nearest, ties to even, at 53 bits of precision:
     round radix2 (FLX_exp 53) ZnearestE (M * 2^E) = m * 2^e   for (m, e) = round53 M E,
   proved through Flocq's own bracketing calculus (Calc.Round.round_trunc_sign_NE_correct: truncate the
   mantissa to the canonical exponent, keep the location of the rest, decide by location and parity).
   With the exponent inside binary64's normal range this is also the rounding of FLT_exp (-1074) 53, the
   format of IEEE754.Binary's binary_float 53 1024 (Bplus_correct, Bmult_correct ... are stated with it).
   These theorems are about real numbers: Print Assumptions reports the axioms of Coq's Reals. *)
From Coq Require Import ZArith Reals Lia.
From Flocq Require Import Core.Core Core.Digits Core.Float_prop Calc.Bracket Calc.Round Calc.Operations.
From Soy Require Import Model.Bytes Model.Num.
(* the conversion fl -> R (ff_R) and its basic lemmas are shared with Proofs/NumLitFlocq.v *)
From Soy Require Export Proofs.FloatFlocqBase.
Open Scope Z_scope.

Theorem round53_is_flocq_round (M E : Z) :
  let '(m, e) := round53 M E in
  round radix2 (FLX_exp 53) ZnearestE (F2R (Float radix2 M E)) = F2R (Float radix2 m e).
Proof.
  set (x := F2R (Float radix2 M E)).
  assert (Hin : inbetween_float radix2 (Z.abs M) E (Rabs x) loc_Exact).
  { unfold inbetween_float. constructor. unfold x. symmetry. apply F2R_Zabs. }
  pose proof (round_trunc_sign_NE_correct radix2 (FLX_exp 53) x (Z.abs M) E loc_Exact Hin (or_intror eq_refl)) as R.
  rewrite R. clear R. unfold x. rewrite ff_Rlt_bool_F2R. unfold truncate, round53. cbv zeta.
  set (a := Z.abs M).
  destruct (Z.eq_dec a 0) as [E0|N0].
  - (* zero *)
    rewrite E0. change (Zdigits radix2 0) with 0. unfold FLX_exp. replace (0 <? 0 + E - 53 - E) with false by lia.
    change (Z.log2 0 + 1 <=? 53) with true. cbv iota. cbn [round_N cond_incr].
    replace M with 0 by (unfold a in E0; lia). reflexivity.
  - assert (Ha : 0 < a) by (unfold a in *; lia).
    rewrite (ff_digits_log2 a Ha). unfold FLX_exp. set (n := Z.log2 a + 1).
    replace (n + E - 53 - E) with (n - 53) by lia.
    destruct (Z.leb_spec n 53) as [Hn|Hn].
    + replace (0 <? n - 53) with false by lia. cbn [round_N cond_incr]. unfold cond_Zopp.
      destruct (Z.ltb_spec M 0); f_equal; f_equal; unfold a; lia.
    + replace (0 <? n - 53) with true by lia. unfold truncate_aux. set (k := n - 53).
      change (Zpower radix2 k) with (2 ^ k).
      assert (Hk : 0 < k) by (unfold k; lia).
      assert (Ek : 2 ^ k = 2 * 2 ^ (k - 1)) by (replace k with (1 + (k - 1)) at 1 by lia; rewrite Z.pow_add_r by lia; reflexivity).
      assert (Pk : 0 < 2 ^ (k - 1)) by (apply Z.pow_pos_nonneg; lia).
      pose proof (Z.mod_pos_bound a (2 ^ k) ltac:(lia)) as Hlo.
      set (hi := a / 2 ^ k). set (lo := a mod 2 ^ k) in *.
      unfold new_location. replace (Z.even (2 ^ k)) with true by (rewrite Ek; symmetry; apply Z.even_mul).
      unfold new_location_even.
      assert (Hres : cond_incr (round_N (negb (Z.even hi))
                       (if Zeq_bool lo 0 then loc_Exact
                        else loc_Inexact match 2 * lo ?= 2 ^ k with Lt => Lt | Eq => Eq | Gt => Gt end)) hi
                     = match lo ?= 2 ^ (k - 1) with Gt => hi + 1 | Lt => hi | Eq => if Z.even hi then hi else hi + 1 end).
      { destruct (Zeq_bool_spec lo 0) as [L0|L0].
        - rewrite L0. replace (0 ?= 2 ^ (k - 1)) with Lt by (symmetry; apply Z.compare_lt_iff; lia). reflexivity.
        - replace (2 * lo ?= 2 ^ k) with (lo ?= 2 ^ (k - 1)).
          2:{ rewrite Ek. apply Zmult_compare_compat_l. lia. }
          destruct (lo ?= 2 ^ (k - 1)); cbn [round_N cond_incr]; [destruct (Z.even hi)|..]; reflexivity. }
      rewrite Hres. unfold cond_Zopp. destruct (M <? 0); reflexivity.
Qed.

(* ---- the operations of Num.v ---- *)

(* mk_fl_r is the correctly rounded value *)
Lemma ff_mk_fl_r M E x : mk_fl_r M E = Some x ->
  ff_R x = round radix2 (FLX_exp 53) ZnearestE (F2R (Float radix2 M E)).
Proof.
  unfold mk_fl_r. pose proof (round53_is_flocq_round M E) as R. destruct (round53 M E) as [m e].
  intros H. rewrite (ff_mk_fl m e x H). symmetry. exact R.
Qed.

Theorem fl_mul_r_flocq m1 e1 m2 e2 z : fl_mul_r (FFin m1 e1) (FFin m2 e2) = Some z ->
  ff_R z = round radix2 (FLX_exp 53) ZnearestE (ff_R (FFin m1 e1) * ff_R (FFin m2 e2)).
Proof.
  cbn [fl_mul_r ff_R]. intros H. rewrite (ff_mk_fl_r _ _ _ H).
  rewrite <- F2R_mult. reflexivity.
Qed.

Lemma ff_add_exact m1 e1 m2 e2 :
  F2R (Float radix2 (m1 * 2 ^ (e1 - Z.min e1 e2) + m2 * 2 ^ (e2 - Z.min e1 e2)) (Z.min e1 e2)) =
  (F2R (Float radix2 m1 e1) + F2R (Float radix2 m2 e2))%R.
Proof.
  rewrite <- F2R_plus. unfold Fplus, Falign. destruct (Zle_bool e1 e2) eqn:C.
  - apply Zle_bool_imp_le in C. replace (Z.min e1 e2) with e1 by lia. rewrite Z.sub_diag, Z.pow_0_r, Z.mul_1_r. reflexivity.
  - assert (e2 < e1) by (destruct (Z.le_gt_cases e1 e2) as [L|L]; [apply Zle_imp_le_bool in L; congruence|lia]).
    replace (Z.min e1 e2) with e2 by lia. rewrite Z.sub_diag, Z.pow_0_r, Z.mul_1_r. reflexivity.
Qed.

Theorem fl_add_r_flocq m1 e1 m2 e2 z : fl_add_r (FFin m1 e1) (FFin m2 e2) = Some z ->
  ff_R z = round radix2 (FLX_exp 53) ZnearestE (ff_R (FFin m1 e1) + ff_R (FFin m2 e2)).
Proof.
  cbn [fl_add_r ff_R]. cbv zeta. intros H. rewrite (ff_mk_fl_r _ _ _ H). rewrite ff_add_exact. reflexivity.
Qed.

Theorem fl_sub_r_flocq m1 e1 m2 e2 z : fl_sub_r (FFin m1 e1) (FFin m2 e2) = Some z ->
  ff_R z = round radix2 (FLX_exp 53) ZnearestE (ff_R (FFin m1 e1) - ff_R (FFin m2 e2)).
Proof.
  unfold fl_sub_r. cbn [fl_neg]. intros H. rewrite (fl_add_r_flocq _ _ _ _ _ H). cbn [ff_R].
  rewrite F2R_Zopp. reflexivity.
Qed.

Theorem fl_of_int_flocq z x : fl_of_int z = Some x ->
  ff_R x = round radix2 (FLX_exp 53) ZnearestE (IZR z).
Proof.
  unfold fl_of_int. intros H. rewrite (ff_mk_fl_r _ _ _ H). f_equal.
  unfold F2R. cbn [Fnum Fexp bpow]. apply Rmult_1_r.
Qed.

(* binary64 proper (IEEE754.Binary's format is FLT_exp (-1074) 53): the same rounding wherever the exact
   result is not below the least normal number 2^-1022 -- in particular for every result inside mk_fl's window *)
Corollary ff_round_binary64 v : (bpow radix2 (-1022) <= Rabs v)%R ->
  round radix2 (FLT_exp (-1074) 53) ZnearestE v = round radix2 (FLX_exp 53) ZnearestE v.
Proof. intros H. apply round_FLT_FLX. exact H. Qed.

(* the five statements together, for Properties/C01.v (which does not import Flocq's notations) *)
Definition ff_correctly_rounded : Prop :=
  (forall M E, let '(m, e) := round53 M E in
     round radix2 (FLX_exp 53) ZnearestE (F2R (Float radix2 M E)) = F2R (Float radix2 m e)) /\
  (forall m1 e1 m2 e2 z, fl_add_r (FFin m1 e1) (FFin m2 e2) = Some z ->
     ff_R z = round radix2 (FLX_exp 53) ZnearestE (ff_R (FFin m1 e1) + ff_R (FFin m2 e2))) /\
  (forall m1 e1 m2 e2 z, fl_sub_r (FFin m1 e1) (FFin m2 e2) = Some z ->
     ff_R z = round radix2 (FLX_exp 53) ZnearestE (ff_R (FFin m1 e1) - ff_R (FFin m2 e2))) /\
  (forall m1 e1 m2 e2 z, fl_mul_r (FFin m1 e1) (FFin m2 e2) = Some z ->
     ff_R z = round radix2 (FLX_exp 53) ZnearestE (ff_R (FFin m1 e1) * ff_R (FFin m2 e2))) /\
  (forall z x, fl_of_int z = Some x -> ff_R x = round radix2 (FLX_exp 53) ZnearestE (IZR z)).

Theorem ff_correctly_rounded_holds : ff_correctly_rounded.
Proof.
  split; [exact round53_is_flocq_round|]. split; [exact fl_add_r_flocq|]. split; [exact fl_sub_r_flocq|].
  split; [exact fl_mul_r_flocq|exact fl_of_int_flocq].
Qed.
