(* lex_print: the scanner model on the text print_node e, for every expression that is well-formed
   (wf_expr) and lexically well-formed (lex_ok), sends exactly the items tokens_of e (types and texts;
   positions aside). *)
From Soy Require Import Model.Bytes Model.Utf8 Model.Num Model.Values Model.Outcome Model.Ast Model.Token Model.NumLit Model.Quote
  Model.AstPrint Generated.Tables Model.Lexer Spec.ExprSyntax
  Proofs.Utf8Proofs Proofs.ValueProofs Proofs.MsgIdProofs Proofs.ExprParserProofs Proofs.LexerPrim Proofs.LexerStates
  Proofs.LexTokens Proofs.LexNumbers Proofs.LexStrings Proofs.LexExpr Proofs.LexPrint.
From Coq Require Import ZifyBool Lia.
Open Scope Z_scope.

(* an item up to its position *)
Definition tv (t : tok) : N * bstr := (t_typ t, t_val t).

(* ---------- the minimal style does not depend on the path ---------- *)

Lemma mapi_from_const {A B} (g : A -> B) l : forall i, mapi_from (fun _ x => g x) i l = map g l.
Proof. induction l as [|x l IH]; intros i; [reflexivity|]. rewrite mapi_from_cons. cbn [map]. rewrite IH. reflexivity. Qed.

Lemma sty_min_0 p : sty_min p = 0%nat. Proof. reflexivity. Qed.

(* a child in the argument list of a node is smaller than the node *)
Lemma size_lt_in (c : node) l : In c l -> (size c < S (list_sum (map size l)))%nat.
Proof. intros H. exact (le_n_S _ _ (size_in_list c l H)). Qed.

Lemma show_min_path : forall e p1 p2, show sty_min p1 e = show sty_min p2 e.
Proof.
  induction e as [e IH] using size_induction. intros p1 p2.
  destruct e; try reflexivity; cbn [show]; rewrite ?sty_min_0; cbn [parens Nat.add].
  - (* func *) do 2 f_equal. f_equal. f_equal. apply mapi_from_ext_in. intros i c Hc. rewrite !sty_min_0. cbn [parens]. apply IH.
    exact (size_lt_in c args Hc).
  - (* list *) f_equal. f_equal. f_equal. apply mapi_from_ext_in. intros i c Hc. rewrite !sty_min_0. cbn [parens]. apply IH.
    exact (size_lt_in c items Hc).
  - (* map *) destruct items as [|kv items]; [reflexivity|]. f_equal. f_equal. f_equal. apply mapi_from_ext_in. intros i c Hc.
    rewrite !sty_min_0. cbn [parens]. do 2 f_equal. apply IH.
    cbn [size]. pose proof (list_sum_In (fun kv => size (snd kv)) c _ Hc) as Hsz. clear - Hsz. lia.
  - (* dataref *) f_equal. f_equal. apply mapi_from_ext_in. intros i c Hc. apply IH. exact (size_lt_in c access Hc).
  - (* acc expr *) f_equal. f_equal. apply IH. cbn [size]. clear. lia.
  - (* not *) f_equal. f_equal. apply IH. cbn [size]. clear. lia.
  - (* neg *) f_equal. f_equal. apply IH. cbn [size]. clear. lia.
  - (* bin *) f_equal; [f_equal; apply IH; cbn [size]; clear; lia|]. f_equal. f_equal. apply IH. cbn [size]. clear. lia.
  - (* tern *) f_equal; [f_equal; apply IH; cbn [size]; clear; lia|]. f_equal. f_equal; [apply IH; cbn [size]; clear; lia|]. f_equal. apply IH. cbn [size]. clear. lia.
Qed.

Definition toks (e : node) : list (N * bstr) := map tv (tokens_of e).

(* ---------- lexical well-formedness ---------- *)

Definition dot_seg (seg : bstr) : Prop := exists cs, seg = 46%N :: cs /\ alnums cs /\ head_digit cs = false.
Definition dotted_ok (name : bstr) : Prop :=
  match split_dots [] name with
  | first :: rest => plain_word first /\ Forall dot_seg rest
  | [] => False
  end.
Definition str_ok (q : bstr) : Prop := exists rs, q = quoted rs /\ Forall valid_scalar rs /\ str_body_ok 39 rs = true.
Definition float_txt_ok (s : bstr) : Prop :=
  exists hs ip frac ex, s = num_text hs ip frac ex /\ num_ok ip frac ex /\ num_type frac ex = itemFloat.

Fixpoint lex_ok (e : node) : Prop :=
  match e with
  | NNull _ | NBool _ _ | NInt _ _ => True
  | NFloat _ f => match fl_print f with Some s => float_txt_ok s | None => True end
  | NString _ q _ => str_ok q
  | NGlobal _ name _ => dotted_ok name
  | NFunc _ name args => plain_word name /\ allP lex_ok args
  | NListLit _ items => allP lex_ok items
  | NMapLit _ items => allP (fun kv => str_ok (quote_key (fst kv)) /\ lex_ok (snd kv)) items
  | NDataRef _ key acc =>
      alnums key /\
      allP (fun a => match a with
                     | NAccIndex _ _ _ => True
                     | NAccKey _ _ k => alnums k /\ head_digit k = false
                     | NAccExpr _ _ x => lex_ok x
                     | _ => False
                     end) acc
  | NNot _ a | NNeg _ a => lex_ok a
  | NBin _ _ a1 a2 => lex_ok a1 /\ lex_ok a2
  | NTern _ c x y => lex_ok c /\ lex_ok x /\ lex_ok y
  | _ => False
  end.

(* ---------- the text of an integer ---------- *)

Lemma lsd_last_nonzero fuel : forall n, (0 < n)%N -> (n < 2 ^ N.of_nat fuel)%N -> last (lsd fuel n) 0%N <> 48%N.
Proof.
  induction fuel as [|f IH]; intros n Hn Hlt; [cbn in Hlt; lia|]. cbn [lsd].
  destruct (N.eqb_spec (n / 10) 0) as [E|E].
  - cbn [last]. assert (n < 10)%N by (apply N.div_small_iff in E; lia). rewrite N.mod_small by lia. lia.
  - assert (Hq : (0 < n / 10)%N) by lia.
    assert (Hlt' : (n / 10 < 2 ^ N.of_nat f)%N).
    { rewrite Nat2N.inj_succ, N.pow_succ_r' in Hlt. apply N.div_lt_upper_bound; lia. }
    specialize (IH (n / 10)%N Hq Hlt').
    destruct (lsd f (n / 10)) as [|d r] eqn:El.
    + destruct f; cbn in El; [cbn in Hlt'; lia|discriminate].
    + exact IH.
Qed.

Lemma digit_byte_b c : is_digit_byte c -> digit_b c = true.
Proof. unfold is_digit_byte, digit_b. lia. Qed.

Lemma dec_of_N_shape p : exists d ds, dec_of_N (Npos p) = d :: ds /\ all_digits (d :: ds) /\ d <> 48%N.
Proof.
  pose proof (dec_of_N_digits (Npos p)) as Hd. pose proof (dec_of_N_nonempty (Npos p)) as Hne.
  pose proof (dec_of_N_lsd (Npos p)) as Hl.
  destruct (dec_of_N (Npos p)) as [|d ds] eqn:E; [congruence|]. exists d, ds. split; [reflexivity|]. split.
  - unfold all_digits. eapply Forall_impl; [|exact Hd]. intros c Hc. apply digit_byte_b. exact Hc.
  - pose proof (lsd_last_nonzero (S (N.to_nat (N.log2 (Npos p)))) (Npos p) ltac:(lia)) as Hz.
    assert (Hlt : (N.pos p < 2 ^ N.of_nat (S (N.to_nat (N.log2 (N.pos p)))))%N).
    { rewrite Nat2N.inj_succ, N2Nat.id. apply N.log2_spec. lia. }
    specialize (Hz Hlt).
    assert (Hlast : last (lsd (S (N.to_nat (N.log2 (N.pos p)))) (N.pos p)) 0%N = d).
    { remember (lsd (S (N.to_nat (N.log2 (N.pos p)))) (N.pos p)) as L. assert (Hr : rev L = d :: ds) by congruence.
      assert (HL : L = rev ds ++ [d]) by (rewrite <- (rev_involutive L), Hr; reflexivity). rewrite HL. apply last_last. }
    congruence.
Qed.

Lemma dec_of_Z_num z : exists hs ip, dec_of_Z z = num_text hs ip None None /\ num_ok ip None None.
Proof.
  destruct z as [|p|p]; cbn [dec_of_Z].
  - exists false, [48%N]. split; [reflexivity|]. repeat split; try discriminate; try exact I. repeat constructor.
  - destruct (dec_of_N_shape p) as (d & ds & E & Hd & Hnz). exists false, (d :: ds). rewrite E. split; [unfold num_text; cbn; rewrite app_nil_r; reflexivity|].
    repeat split; try discriminate; try exact I; [exact Hd|]. cbn. destruct d as [|q]; try exact I. do 6 (destruct q as [q|q|]; try exact I). destruct ds; [exact I|congruence].
  - destruct (dec_of_N_shape p) as (d & ds & E & Hd & Hnz). exists true, (d :: ds). rewrite E. split; [unfold num_text; cbn; rewrite app_nil_r; reflexivity|].
    repeat split; try discriminate; try exact I; [exact Hd|]. cbn. destruct d as [|q]; try exact I. do 6 (destruct q as [q|q|]; try exact I). destruct ds; [exact I|congruence].
Qed.

(* ---------- lists of children ---------- *)

Lemma opt_all_items {A} (f : A -> option bstr) (g : A -> list (N * bstr)) : forall xs l, opt_all (map f xs) = Some l ->
  map fst (combine l (map g xs)) = l /\ map snd (combine l (map g xs)) = map g xs /\
  (forall it, In it (combine l (map g xs)) -> exists x, In x xs /\ f x = Some (fst it) /\ snd it = g x).
Proof.
  induction xs as [|x xs IH]; intros l H; cbn [map opt_all] in H.
  - injection H as <-. cbn. repeat split. intros it [].
  - destruct (f x) as [s|] eqn:Ef; [|discriminate]. destruct (opt_all (map f xs)) as [r|] eqn:Er; [|discriminate].
    injection H as <-. destruct (IH r eq_refl) as (A1 & A2 & A3). cbn [map combine fst snd]. rewrite A1, A2. repeat split.
    intros it [<-|Hin].
    + exists x. cbn. split; [left; reflexivity|]. split; [exact Ef|reflexivity].
    + destruct (A3 it Hin) as (y & Hy & B1 & B2). exists y. split; [right; exact Hy|]. split; assumption.
Qed.

Lemma map_tv_sep_join ls : map tv (sep_join [T_comma] ls) = sepj [T_com] (map (map tv) ls).
Proof.
  induction ls as [|x ls IH]; [reflexivity|]. destruct ls as [|y ls]; [reflexivity|].
  rewrite sep_join_cons2, !map_app, IH. reflexivity.
Qed.

(* the items of a comma-separated list of children, each child shown at its own path *)
Lemma map_tv_sep_mapi {A} (g : nat -> A -> list tok) (h : A -> list (N * bstr)) l :
  (forall i c, In c l -> map tv (g i c) = h c) -> map tv (sep_join [T_comma] (mapi_from g 0 l)) = sepj [T_com] (map h l).
Proof.
  intros H. rewrite map_tv_sep_join, map_mapi_from, (mapi_from_ext_in _ (fun _ c => h c)), mapi_from_const; [reflexivity|exact H].
Qed.

Lemma map_tv_parens1 (b : bool) ts : map tv (parens (b2n b) ts) = if b then [T_lp] ++ map tv ts ++ [T_rp] else map tv ts.
Proof. destruct b; cbn [b2n parens]; [|reflexivity]. cbn [map]. rewrite map_app. reflexivity. Qed.

(* ---------- map literals: the printer sorts by key; sorted keys stay as they are ---------- *)

Lemma sort_kv_sorted (l : list (bstr * bstr)) : keys_sorted (map fst l) -> sort_kv l = l.
Proof.
  induction l as [|x l IH]; intros Hs; [reflexivity|]. cbn [map keys_sorted] in Hs. destruct Hs as [Hh Hs].
  unfold sort_kv in *. cbn [fold_right]. rewrite (IH Hs). destruct l as [|y l]; [reflexivity|].
  cbn [insert_kv]. cbn [map] in Hh. unfold bstr_leb. rewrite (bstr_ltb_asym _ _ Hh). reflexivity.
Qed.

Lemma opt_all_kv_items (g : node -> list (N * bstr)) : forall (items : list (bstr * node)) l,
  opt_all_kv (map (fun kv => (fst kv, print_node (snd kv))) items) = Some l ->
  map fst l = map fst items /\
  (forall it, In it (combine l items) -> fst (fst it) = fst (snd it) /\ print_node (snd (snd it)) = Some (snd (fst it)) /\ In (snd it) items) /\
  length l = length items.
Proof.
  induction items as [|[k v] items IH]; intros l H; cbn [map opt_all_kv fst snd] in H.
  - injection H as <-. cbn. repeat split; try (intros ? []); contradiction.
  - destruct (print_node v) as [s|] eqn:Ev; [|discriminate].
    destruct (opt_all_kv (map (fun kv => (fst kv, print_node (snd kv))) items)) as [r|] eqn:Er; [|discriminate].
    injection H as <-. destruct (IH r eq_refl) as (A1 & A2 & A3). cbn [map fst combine length]. rewrite A1, A3. split; [reflexivity|]. split; [|reflexivity].
    intros it0 [<-|Hin]; cbn [fst snd].
    + repeat split; [exact Ev|left; reflexivity].
    + destruct (A2 it0 Hin) as (B1 & B2 & B3). repeat split; [exact B1|exact B2|right; exact B3].
Qed.

(* ---------- the first byte of a printed expression ---------- *)

Lemma num_text_head hs ip frac ex : num_ok ip frac ex ->
  exists c r, num_text hs ip frac ex = c :: r /\ (if hs then c = 45%N else digit_b c = true).
Proof.
  intros (Hip & Hne & _). destruct ip as [|d ip]; [congruence|]. inversion Hip as [|? ? Hd _]; subst.
  unfold num_text, sign_text. destruct hs; cbn [app]; eexists; eexists; (split; [reflexivity|]); [reflexivity|exact Hd].
Qed.

(* ASCII and none of { / \ (what lexBeginTag looks at); for a primary or unary expression it is a digit exactly
   when the expression is a non-negative number literal (what the printer of a negation looks at) *)
Lemma print_first : forall e s, wf_expr e -> lex_ok e -> print_node e = Some s ->
  exists c r, s = c :: r /\ (c < 128)%N /\ c <> 123%N /\ c <> 47%N /\ c <> 92%N /\
    ((expr_level e <? lvl_unary)%N = false -> digit_b c = neg_literal e).
Proof.
  induction e as [e IH] using size_induction. intros s Hwf Hlo Hp.
  set (okb := fun c => ((c <? 128) && negb (c =? 123) && negb (c =? 47) && negb (c =? 92))%N).
  assert (Hlit : forall c r (d : bool), okb c = true -> digit_b c = d ->
            exists c' r', c :: r = c' :: r' /\ (c' < 128)%N /\ c' <> 123%N /\ c' <> 47%N /\ c' <> 92%N /\
              ((expr_level e <? lvl_unary)%N = false -> digit_b c' = d)).
  { intros c r d H <-. exists c, r. unfold okb in H. repeat split; lia. }
  assert (Hletter : forall c, (c < 128)%N -> letter_b c = true -> okb c = true /\ digit_b c = false).
  { intros c H0 H1. unfold letter_b in H1. unfold okb, digit_b. lia. }
  assert (Hdigit : forall c, digit_b c = true -> okb c = true) by (intros c H; unfold digit_b in H; unfold okb; lia).
  assert (Hlow : forall e1 s1 w r, (size e1 < size e)%nat -> wf_expr e1 -> lex_ok e1 -> print_node e1 = Some s1 ->
            (expr_level e <? lvl_unary)%N = true ->
            exists c' r', wrap_operand (level_of e1) w s1 ++ r = c' :: r' /\ (c' < 128)%N /\ c' <> 123%N /\ c' <> 47%N /\ c' <> 92%N /\
              ((expr_level e <? lvl_unary)%N = false -> digit_b c' = neg_literal e)).
  { intros e1 s1 w r Hsz Hw1 Hl1 E1 Hlv. rewrite Hlv. unfold wrap_operand. destruct (level_of e1 <? w)%N.
    - eexists; eexists. split; [reflexivity|]. repeat split; discriminate.
    - destruct (IH e1 Hsz s1 Hw1 Hl1 E1) as (c & r1 & -> & A & B & C & D & _). exists c, (r1 ++ r). repeat split; try assumption; discriminate. }
  destruct e; cbn [wf_expr] in Hwf; try contradiction; cbn [lex_ok] in Hlo; try contradiction; cbn [print_node] in Hp; cbn [neg_literal].
  - injection Hp as <-. apply (Hlit _ _ false); reflexivity.
  - injection Hp as <-. destruct x; apply (Hlit _ _ false); reflexivity.
  - injection Hp as <-. destruct z as [|q|q]; cbn [dec_of_Z].
    + apply (Hlit _ _ true); reflexivity.
    + destruct (dec_of_N_shape q) as (d & ds & E & Hd & _). rewrite E. inversion Hd as [|? ? Hd0 _]; subst.
      apply (Hlit _ _ true); [exact (Hdigit d Hd0)|exact Hd0].
    + apply (Hlit _ _ false); reflexivity.
  - rewrite Hp in Hlo |- *. destruct Hlo as (hs & ip & frac & ex & -> & Hok & _).
    destruct (num_text_head hs ip frac ex Hok) as (c & r & E & Hc). rewrite E. cbn [starts_with_digit].
    change ((48 <=? c) && (c <=? 57))%N with (digit_b c).
    destruct hs; [subst c; apply Hlit; reflexivity|apply Hlit; [exact (Hdigit c Hc)|reflexivity]].
  - injection Hp as <-. destruct Hlo as (rs & -> & _). apply (Hlit _ _ false); reflexivity.
  - injection Hp as <-. unfold dotted_ok in Hlo. pose proof (split_dots_concat name []) as Hc. cbn [app] in Hc.
    destruct (split_dots [] name) as [|first rest]; [contradiction|]. destruct Hlo as [(c0 & cs & -> & H0 & H1 & _) _].
    rewrite <- Hc. cbn [List.concat app]. apply (Hlit _ _ false); apply (Hletter c0 H0 H1).
  - destruct Hlo as [(c0 & cs & -> & H0 & H1 & _) _]. destruct (opt_all (map print_node args)); cbn [obind] in Hp; [|discriminate].
    injection Hp as <-. cbn [app]. apply (Hlit _ _ false); apply (Hletter c0 H0 H1).
  - destruct (opt_all (map print_node items)); cbn [obind] in Hp; [|discriminate]. injection Hp as <-.
    apply (Hlit _ _ false); reflexivity.
  - destruct items as [|kv items].
    + injection Hp as <-. apply (Hlit _ _ false); reflexivity.
    + destruct (opt_all_kv _); cbn [obind] in Hp; [|discriminate]. injection Hp as <-. apply (Hlit _ _ false); reflexivity.
  - destruct (opt_all (map print_node access)); cbn [obind] in Hp; [|discriminate]. injection Hp as <-.
    apply (Hlit _ _ false); reflexivity.
  - destruct (print_node e); cbn [obind] in Hp; [|discriminate]. injection Hp as <-. apply (Hlit _ _ false); reflexivity.
  - destruct (print_node e) as [s0|]; cbn [obind] in Hp; [|discriminate].
    destruct (wrap_operand (level_of e) ast_prec_unary s0) as [|a0 r0]; [discriminate|].
    destruct (starts_with_digit (a0 :: r0)); injection Hp as <-; apply (Hlit _ _ false); reflexivity.
  - destruct Hwf as [Hw1 _]. destruct Hlo as [Hl1 _].
    destruct (print_node e1) as [s1|] eqn:E1; cbn [obind] in Hp; [|discriminate].
    destruct (print_node e2) as [s2|]; cbn [obind] in Hp; [|discriminate]. cbv zeta in Hp. injection Hp as <-.
    apply (Hlow e1 s1); [cbn [size]; clear; lia|assumption..|destruct op; reflexivity].
  - destruct Hwf as (_ & Hw1 & _). destruct Hlo as (Hl1 & _).
    destruct (print_node e1) as [s1|] eqn:E1; cbn [obind] in Hp; [|discriminate].
    destruct (print_node e2) as [s2|]; cbn [obind] in Hp; [|discriminate].
    destruct (print_node e3) as [s3|]; cbn [obind] in Hp; [|discriminate]. injection Hp as <-.
    apply (Hlow e1 s1); [cbn [size]; clear; lia|assumption..|reflexivity].
Qed.

(* ---------- where an expression may start ---------- *)
Definition no_minus (txt : bstr) : Prop := match txt with 45%N :: _ => False | _ => True end.
Definition pos_ok (P : N -> Prop) (txt : bstr) : Prop := (forall ty, P ty -> opnd ty) \/ no_minus txt.
Lemma pos_ok_opnd txt : pos_ok opnd txt. Proof. left. auto. Qed.
Lemma pos_ok_minus P r : pos_ok P (45%N :: r) -> forall ty, P ty -> opnd ty.
Proof. intros [H|H]; [exact H|contradiction H]. Qed.
(* the leftmost operand of a binary or ternary operator, printed without parentheses *)
Lemma pos_ok_left P (b : bool) (s1 w r : bstr) : b = false -> pos_ok P ((if b then w else s1) ++ r) -> pos_ok P s1.
Proof. intros -> [H|H]; [left; exact H|right]. destruct s1; [exact I|exact H]. Qed.

Section Main.
Variable uni_letter uni_digit : Z -> bool.
Hypothesis letter_ascii : forall c, (c < 128)%N -> uni_letter (Z.of_N c) = ((65 <=? c) && (c <=? 90) || (97 <=? c) && (c <=? 122))%N.
Hypothesis digit_ascii : forall c, (c < 128)%N -> uni_digit (Z.of_N c) = digit_b c.
Hypothesis letter_eof : uni_letter (-1) = false.
Hypothesis digit_eof : uni_digit (-1) = false.
Variable inp : bstr.
Variable base : Z.
Notation L := (lexes uni_letter uni_digit inp base).
Notation W lem := (lem uni_letter uni_digit letter_ascii digit_ascii letter_eof digit_eof inp base).

(* an operand that the printer may have to parenthesise *)
Lemma L_wrap (b : bool) s ts : L opnd fexp s ts term ->
  L opnd fexp (if b then [40%N] ++ s ++ [41%N] else s) (if b then [T_lp] ++ ts ++ [T_rp] else ts) term.
Proof. intros H. destruct b; [apply (W L_paren); exact H|exact H]. Qed.
(* the leftmost operand, whatever the last item was: in parentheses the inside is an operand position *)
Lemma L_wrap_P (P : N -> Prop) (b : bool) s ts : L opnd fexp s ts term -> (b = false -> L P fexp s ts term) ->
  L P fexp (if b then [40%N] ++ s ++ [41%N] else s) (if b then [T_lp] ++ ts ++ [T_rp] else ts) term.
Proof. intros H H'. destruct b; [apply (W L_paren); exact H|exact (H' eq_refl)]. Qed.

Lemma fexp_num frac ex s : fexp s -> num_follow frac ex s.
Proof.
  intros H. split; [apply fexp_stops; exact H|]. intros _ _. destruct s as [|c s]; [exact I|]. cbn in H. lia.
Qed.

(* a keyword used as a value *)
Lemma L_keyword_P (P : N -> Prop) c0 cs t : (c0 < 128)%N -> letter_b c0 = true -> alnums cs -> word_type (c0 :: cs) = t ->
  t <> itemLiteral -> t <> itemCss -> ends_term t = true -> L P fexp (c0 :: cs) [(t, c0 :: cs)] term.
Proof.
  intros H0 H1 H2 Ht Hn1 Hn2 He. pose proof (W lexes_word c0 cs H0 H1 H2) as Hw. rewrite Ht in Hw.
  eapply lexes_weaken; [apply (W L_eq_term _ _ _ _ _ (Hw Hn1 Hn2) He)|intros; exact I|apply fexp_stops|auto].
Qed.
Lemma L_keyword c0 cs t : (c0 < 128)%N -> letter_b c0 = true -> alnums cs -> word_type (c0 :: cs) = t ->
  t <> itemLiteral -> t <> itemCss -> ends_term t = true -> L opnd fexp (c0 :: cs) [(t, c0 :: cs)] term.
Proof. apply L_keyword_P. Qed.

(* the text of a non-negative integer is a non-empty run of digits *)
Lemma dec_of_Z_digits z : (0 <= z)%Z -> all_digits (dec_of_Z z) /\ dec_of_Z z <> [].
Proof.
  intros Hz. destruct z as [|p|p]; [|pose proof (dec_of_N_shape p) as (d & ds & E & Hd & _)|lia]; cbn [dec_of_Z].
  - split; [repeat constructor|discriminate].
  - rewrite E. split; [exact Hd|discriminate].
Qed.

(* a dotted name: identifier, then one .ident per dot *)
Lemma L_global_P (P : N -> Prop) first rest : plain_word first -> Forall dot_seg rest ->
  L P fexp (first ++ concat_b rest) ((itemIdent, first) :: map (fun sg => (itemDotIdent, sg)) rest) term.
Proof.
  intros Hf Hr.
  set (accs := map (fun sg => (sg, [(itemDotIdent, sg)])) rest).
  assert (Hfst : map fst accs = rest) by (unfold accs; rewrite map_map; cbn [fst]; apply map_id).
  assert (Hsnd : concat (map snd accs) = map (fun sg => (itemDotIdent, sg)) rest).
  { unfold accs. rewrite map_map. cbn [snd]. clear. induction rest as [|a r IH]; [reflexivity|]. cbn. rewrite IH. reflexivity. }
  assert (Hall : forall it, In it accs -> L term facc (fst it) (snd it) term /\ acc_head (fst it)).
  { intros it Hin. unfold accs in Hin. apply in_map_iff in Hin. destruct Hin as (sg & <- & Hsg).
    rewrite Forall_forall in Hr. destruct (Hr sg Hsg) as (cs & -> & Hcs & Hd). cbn [fst snd]. split; [|cbn; lia].
    apply (W L_acc_key false cs Hcs Hd). }
  change ((itemIdent, first) :: map (fun sg => (itemDotIdent, sg)) rest) with ([(itemIdent, first)] ++ map (fun sg => (itemDotIdent, sg)) rest).
  rewrite <- Hsnd. rewrite <- Hfst at 1.
  refine (W L_seq _ _ _ _ _ _ _ _ _ _ (W L_anyP P _ _ _ _ (W L_ident first Hf))
            (W L_weaken _ _ _ _ _ _ _ _ (W L_accs accs Hall) (fun ty H => H) (fun s (H : fexp s) => or_introl H) (fun ty H => H)) _ _).
  - intros s Hs. assert (Hfa : facc (concat_b (map fst accs) ++ s)).
    { destruct accs as [|[t2 ts2] accs']; [left; exact Hs|]. right. cbn [map concat_b fst].
      destruct (Hall (t2, ts2) (or_introl eq_refl)) as [_ Hh]. cbn [fst] in Hh. destruct t2 as [|c t2]; [contradiction|]. exact Hh. }
    apply (proj1 (facc_stops uni_letter uni_digit letter_ascii digit_ascii letter_eof digit_eof _ Hfa)).
  - auto.
Qed.
Lemma L_global first rest : plain_word first -> Forall dot_seg rest ->
  L opnd fexp (first ++ concat_b rest) ((itemIdent, first) :: map (fun sg => (itemDotIdent, sg)) rest) term.
Proof. apply L_global_P. Qed.

Lemma concat_concat_b (l : list bstr) : List.concat l = concat_b l.
Proof. induction l as [|a l IH]; [reflexivity|]. cbn. rewrite IH. reflexivity. Qed.

Lemma toks_path e path : map tv (show sty_min path e) = toks e.
Proof. unfold toks, tokens_of. rewrite (show_min_path e path []). reflexivity. Qed.

(* the items of an operand that may be parenthesised; the items of the operators *)
Lemma toks_operand path (b : bool) a :
  map tv (parens (sty_min path + b2n b) (show sty_min path a)) = if b then [T_lp] ++ toks a ++ [T_rp] else toks a.
Proof. rewrite sty_min_0. cbn [Nat.add]. rewrite map_tv_parens1, toks_path. reflexivity. Qed.

Lemma toks_not p a : toks (NNot p a) = [(itemNot, s_not_w)] ++ (if (expr_level a <? lvl_unary)%N then [T_lp] ++ toks a ++ [T_rp] else toks a).
Proof. unfold toks at 1. unfold tokens_of. cbn [show map]. rewrite toks_operand. reflexivity. Qed.

Lemma toks_neg p a : toks (NNeg p a) =
  [(itemNegate, [45%N])] ++ (if ((expr_level a <? lvl_unary)%N || neg_literal a) then [T_lp] ++ toks a ++ [T_rp] else toks a).
Proof. unfold toks at 1. unfold tokens_of. cbn [show map]. rewrite toks_operand. reflexivity. Qed.

Lemma toks_bin op p a1 a2 : toks (NBin op p a1 a2) =
  (if (expr_level a1 <? op_level op)%N then [T_lp] ++ toks a1 ++ [T_rp] else toks a1) ++ [(op_tok_typ op, binop_name op)] ++
  (if (expr_level a2 <? op_level op + 1)%N then [T_lp] ++ toks a2 ++ [T_rp] else toks a2).
Proof. unfold toks at 1. unfold tokens_of. cbn [show]. rewrite map_app. cbn [map]. rewrite !toks_operand. reflexivity. Qed.

Lemma toks_tern p c x y : toks (NTern p c x y) =
  (if (expr_level c <? lvl_ternary + 1)%N then [T_lp] ++ toks c ++ [T_rp] else toks c) ++ [T_tern] ++ toks x ++ [T_col] ++ toks y.
Proof.
  unfold toks at 1. unfold tokens_of. cbn [show]. rewrite map_app. cbn [map]. rewrite map_app. cbn [map].
  rewrite toks_operand, !sty_min_0. cbn [parens]. rewrite !toks_path. reflexivity.
Qed.

(* the printer's parentheses, by the Spec's levels *)
Lemma wrap_level e q s : wrap_operand (level_of e) q s = if (expr_level e <? q)%N then [40%N] ++ s ++ [41%N] else s.
Proof. unfold wrap_operand. rewrite ast_level_of_is_expr_level. reflexivity. Qed.

(* one access of a data reference; for [e] the run over the index expression is given *)
Lemma L_access a ta :
  match a with
  | NAccIndex _ _ i => 0 <= i
  | NAccKey _ _ k => alnums k /\ head_digit k = false
  | NAccExpr _ _ x => forall sx, print_node x = Some sx -> L opnd fexp sx (toks x) term
  | _ => False
  end -> print_node a = Some ta -> L term facc ta (toks a) term /\ acc_head ta.
Proof.
  destruct a; try contradiction; intros H Hp; cbn [print_node] in Hp.
  - injection Hp as <-. destruct (dec_of_Z_digits i H) as [Hd Hne].
    unfold toks, tokens_of. cbn [show map tv t_typ t_val tk]. split; [|destruct nullsafe; cbn; lia].
    pose proof (W L_acc_index nullsafe (dec_of_Z i) Hd Hne) as HA. destruct nullsafe; exact HA.
  - injection Hp as <-. destruct H as [Hak Hdk].
    unfold toks, tokens_of. cbn [show map tv t_typ t_val tk]. split; [|destruct nullsafe; cbn; lia].
    pose proof (W L_acc_key nullsafe k Hak Hdk) as HA. destruct nullsafe; exact HA.
  - destruct (print_node a) as [sa|] eqn:Ea; cbn [obind] in Hp; [|discriminate]. injection Hp as <-.
    unfold toks at 1. unfold tokens_of. cbn [show map tv t_typ t_val tk]. rewrite sty_min_0. cbn [parens]. rewrite map_app, toks_path. cbn [map tv t_typ t_val tk].
    split; [|destruct nullsafe; cbn; lia].
    pose proof (W L_acc_expr nullsafe sa (toks a) (H sa eq_refl)) as HA. destruct nullsafe; exact HA.
Qed.

(* [pos_ok P txt]: where the text starts, the last item sent has a type in P: either an operand may start there
   (lexNegative reads "-" as the unary minus), or the text does not start with "-" (the first character decides
   without looking at the last item) *)
Theorem lex_print_gen : forall e, wf_expr e -> lex_ok e -> forall txt, print_node e = Some txt ->
  forall P : N -> Prop, pos_ok P txt -> L P fexp txt (toks e) term.
Proof.
  induction e as [e IH0] using size_induction. intros Hwf Hlo txt Hp P HP.
  assert (IH : forall y, (size y < size e)%nat -> wf_expr y -> lex_ok y -> forall t, print_node y = Some t -> L opnd fexp t (toks y) term).
  { intros y Hy Hwy Hly t Ht. exact (IH0 y Hy Hwy Hly t Ht opnd (pos_ok_opnd t)). }
  destruct e; cbn [wf_expr] in Hwf; try contradiction; cbn [lex_ok] in Hlo; try contradiction; cbn [print_node] in Hp.
  - (* null *) injection Hp as <-. apply (L_keyword_P P 110%N [117; 108; 108]%N itemNull); try reflexivity; try discriminate; lia.
  - (* bool *) injection Hp as <-. destruct x.
    + apply (L_keyword_P P 116%N [114; 117; 101]%N itemBool); try reflexivity; try discriminate; lia.
    + apply (L_keyword_P P 102%N [97; 108; 115; 101]%N itemBool); try reflexivity; try discriminate; lia.
  - (* int *) injection Hp as <-. destruct (dec_of_Z_num z) as (hs & ip & E & Hok). unfold toks, tokens_of. cbn [show map tv t_typ t_val tk]. rewrite E.
    eapply lexes_weaken; [apply (W L_eq_term _ _ _ _ _ (W lexes_number hs ip None None Hok) eq_refl)|intros ty Hty Hhs; subst hs; rewrite E in HP; exact (pos_ok_minus P _ HP ty Hty)|apply fexp_num|auto].
  - (* float *) rewrite Hp in Hlo. destruct Hlo as (hs & ip & frac & ex & -> & Hok & Hty). unfold toks, tokens_of. cbn [show map tv t_typ t_val tk]. rewrite Hp.
    change pk_itemFloat with itemFloat. rewrite <- Hty.
    eapply lexes_weaken; [apply (W L_eq_term _ _ _ _ _ (W lexes_number hs ip frac ex Hok)); rewrite Hty; reflexivity|intros ty Hy Hhs; subst hs; exact (pos_ok_minus P _ HP ty Hy)|apply fexp_num|auto].
  - (* string *) injection Hp as <-. destruct Hlo as (rs & -> & Hv & Hok). unfold toks, tokens_of. cbn [show map tv t_typ t_val tk].
    eapply lexes_weaken; [apply (W L_eq_term _ _ _ _ _ (W lexes_string rs Hv Hok) eq_refl)|intros; exact I|intros; exact I|auto].
  - (* global *) injection Hp as <-. unfold dotted_ok in Hlo. unfold toks, tokens_of. cbn [show]. unfold global_toks.
    pose proof (split_dots_concat name []) as Hc. cbn [app] in Hc.
    destruct (split_dots [] name) as [|first rest]; [contradiction|]. destruct Hlo as [Hf Hr].
    rewrite <- Hc. cbn [List.concat]. rewrite concat_concat_b. cbn [map tv t_typ t_val tk]. rewrite map_map. cbn [tv t_typ t_val tk].
    apply (L_global_P P first rest Hf Hr).
  - (* func *) destruct Hlo as [Hn Hla]. destruct (opt_all (map print_node args)) as [l|] eqn:El; cbn [obind] in Hp; [|discriminate].
    injection Hp as <-.
    destruct (opt_all_items print_node toks args l El) as (A1 & A2 & A3).
    assert (Hall : forall it, In it (combine l (map toks args)) -> L opnd fexp (fst it) (snd it) term).
    { intros it Hin. destruct (A3 it Hin) as (x & Hx & Hpx & ->). apply IH; [exact (size_lt_in x args Hx)|eapply allP_In; eassumption|eapply allP_In; eassumption|exact Hpx]. }
    pose proof (W L_func_P P name _ Hn Hall) as HL. rewrite A1, A2 in HL.
    unfold toks at 1. unfold tokens_of. cbn [show map tv t_typ t_val tk]. rewrite map_app, (map_tv_sep_mapi _ toks); [exact HL|].
    intros i c _. rewrite sty_min_0. apply toks_path.
  - (* list *) destruct (opt_all (map print_node items)) as [l|] eqn:El; cbn [obind] in Hp; [|discriminate].
    injection Hp as <-.
    destruct (opt_all_items print_node toks items l El) as (A1 & A2 & A3).
    assert (Hall : forall it, In it (combine l (map toks items)) -> L opnd fexp (fst it) (snd it) term).
    { intros it Hin. destruct (A3 it Hin) as (x & Hx & Hpx & ->). apply IH; [exact (size_lt_in x items Hx)|eapply allP_In; eassumption|eapply allP_In; eassumption|exact Hpx]. }
    pose proof (W L_list_P P _ Hall) as HL. rewrite A1, A2 in HL.
    unfold toks at 1. unfold tokens_of. cbn [show map tv t_typ t_val tk]. rewrite map_app, (map_tv_sep_mapi _ toks); [exact HL|].
    intros i c _. rewrite sty_min_0. apply toks_path.
  - (* map *) destruct items as [|kv0 items0].
    { injection Hp as <-. exact (W L_empty_map_P P). }
    remember (kv0 :: items0) as items eqn:Eitems.
    destruct (opt_all_kv (map (fun kv => (fst kv, print_node (snd kv))) items)) as [l|] eqn:El; cbn [obind] in Hp; [|discriminate].
    injection Hp as <-. destruct Hwf as [Hwa Hks].
    destruct (opt_all_kv_items toks items l El) as (A1 & A2 & A3).
    rewrite (sort_kv_sorted l) by (rewrite A1; exact Hks).
    set (ents := map (fun p => (quote_key (fst (fst p)) ++ s_colon_space ++ snd (fst p),
                                (itemString, quote_key (fst (snd p))) :: T_col :: toks (snd (snd p)))) (combine l items)).
    assert (Hfst : map fst ents = map (fun kv => quote_key (fst kv) ++ s_colon_space ++ snd kv) l).
    { unfold ents. rewrite map_map. cbn [fst]. clear -A3. revert items A3. induction l as [|x l IHl]; intros [|y items] A3; cbn in *; try lia; [reflexivity|].
      f_equal. apply IHl. lia. }
    assert (Hsnd : map snd ents = map (fun kv => (itemString, quote_key (fst kv)) :: T_col :: toks (snd kv)) items).
    { unfold ents. rewrite map_map. cbn [snd]. clear -A3. revert items A3. induction l as [|x l IHl]; intros [|y items] A3; cbn in *; try lia; [reflexivity|].
      f_equal. apply IHl. lia. }
    assert (Hall : forall it, In it ents -> L opnd fexp (fst it) (snd it) term).
    { intros it Hin. unfold ents in Hin. apply in_map_iff in Hin. destruct Hin as (pr & <- & Hpr). cbn beta. cbn [fst snd].
      destruct (A2 pr Hpr) as (B1 & B2 & B3). destruct pr as [[k1 s1] [k2 v2]]. cbn [fst snd] in *. subst k2.
      pose proof (allP_In _ _ _ Hwa B3) as [_ Hwv]. pose proof (allP_In _ _ _ Hlo B3) as [(rs & Hq & Hv & Hok) Hlv]. cbn [fst snd] in *.
      rewrite Hq.
      apply (W L_entry rs _ _ Hv Hok). apply IH; [cbn [size]; pose proof (list_sum_In (fun kv => size (snd kv)) _ _ B3) as Hsz; cbn [snd] in Hsz; clear - Hsz; lia|exact Hwv|exact Hlv|exact B2]. }
    assert (HL : L P fexp ([91%N] ++ join [44; 32]%N (map (fun kv => quote_key (fst kv) ++ s_colon_space ++ snd kv) l) ++ [93%N])
                   (T_lb :: sepj [T_com] (map (fun kv => (itemString, quote_key (fst kv)) :: T_col :: toks (snd kv)) items) ++ [T_rb]) term).
    { rewrite <- Hfst, <- Hsnd. exact (W L_list_P P ents Hall). }
    unfold toks at 1. unfold tokens_of. rewrite Eitems. cbn [show]. rewrite <- Eitems.
    cbn [map tv t_typ t_val tk].
    rewrite map_app, (map_tv_sep_mapi _ (fun kv => (itemString, quote_key (fst kv)) :: T_col :: toks (snd kv))); [exact HL|].
    intros i kv _. rewrite sty_min_0. cbn [map tv t_typ t_val tk parens]. rewrite toks_path. reflexivity.
  - (* dataref *) destruct Hlo as [Hk Hla]. destruct (opt_all (map print_node access)) as [l|] eqn:El; cbn [obind] in Hp; [|discriminate].
    injection Hp as <-.
    destruct (opt_all_items print_node toks access l El) as (A1 & A2 & A3).
    assert (Hall : forall it, In it (combine l (map toks access)) -> L term facc (fst it) (snd it) term /\ acc_head (fst it)).
    { intros it Hin. destruct (A3 it Hin) as (a & Ha & Hpa & ->).
      pose proof (allP_In _ _ _ Hwf Ha) as Hwa. pose proof (allP_In _ _ _ Hla Ha) as Hlaa. cbn beta in Hwa, Hlaa.
      apply L_access; [|exact Hpa]. destruct a; try contradiction; [exact (proj1 Hwa)|exact Hlaa|].
      intros sx Ex. apply IH; [cbn [size]; pose proof (size_in_list _ access Ha) as Hsz; cbn [size] in Hsz; clear - Hsz; lia|exact Hwa|exact Hlaa|exact Ex]. }
    pose proof (W L_dataref_P P key _ Hk Hall) as HL. rewrite A1, A2 in HL.
    unfold toks at 1. unfold tokens_of. cbn [show map tv t_typ t_val tk].
    rewrite (mapi_from_ext_in _ (fun _ c => show sty_min [] c)); [|intros i c Hc; apply show_min_path].
    rewrite mapi_from_const, concat_map, map_map. exact HL.
  - (* not *) destruct (print_node e) as [sa|] eqn:Ea; cbn [obind] in Hp; [|discriminate]. injection Hp as <-.
    assert (HLa : L opnd fexp sa (toks e) term) by (apply IH; [cbn [size]; clear; lia|exact Hwf|exact Hlo|exact Ea]).
    rewrite toks_not, wrap_level. exact (W L_not_P P _ _ (L_wrap _ _ _ HLa)).
  - (* neg *) destruct (print_node e) as [sa|] eqn:Ea; cbn [obind] in Hp; [|discriminate]. cbv zeta in Hp.
    assert (HLa : L opnd fexp sa (toks e) term) by (apply IH; [cbn [size]; clear; lia|exact Hwf|exact Hlo|exact Ea]).
    rewrite toks_neg. rewrite wrap_level in Hp. change ast_prec_unary with lvl_unary in Hp.
    assert (Hpar : forall s, head_ascii (([40%N] ++ sa ++ [41%N]) ++ s) /\ head_digit (([40%N] ++ sa ++ [41%N]) ++ s) = false) by (intros; cbn; split; [lia|reflexivity]).
    destruct (expr_level e <? lvl_unary)%N eqn:Elv; cbn [orb].
    + (* the operand is parenthesised by its level *)
      cbn [app starts_with_digit] in Hp. change ((48 <=? 40) && (40 <=? 57))%N with false in Hp. cbv iota in Hp. injection Hp as <-.
      eapply lexes_weaken; [exact (W L_neg _ _ (W L_paren opnd _ _ HLa) Hpar)|exact (pos_ok_minus P _ HP)|auto|auto].
    + destruct (print_first e sa Hwf Hlo Ea) as (c & r & -> & Hc & _ & _ & _ & Hd). specialize (Hd Elv).
      cbn [starts_with_digit] in Hp. change ((48 <=? c) && (c <=? 57))%N with (digit_b c) in Hp. rewrite Hd in Hp.
      destruct (neg_literal e) eqn:Enl; injection Hp as <-.
      * (* -(5) *) eapply lexes_weaken; [exact (W L_neg _ _ (W L_paren opnd _ _ HLa) Hpar)|exact (pos_ok_minus P _ HP)|auto|auto].
      * eapply lexes_weaken; [refine (W L_neg _ _ HLa _)|exact (pos_ok_minus P _ HP)|auto|auto]. intros s. cbn. split; [exact Hc|exact Hd].
  - (* bin *) destruct Hwf as [Hw1 Hw2]. destruct Hlo as [Hl1 Hl2].
    destruct (print_node e1) as [s1|] eqn:E1; cbn [obind] in Hp; [|discriminate].
    destruct (print_node e2) as [s2|] eqn:E2; cbn [obind] in Hp; [|discriminate]. injection Hp as <-.
    assert (HL1 : L opnd fexp s1 (toks e1) term) by (apply IH; [cbn [size]; clear; lia|assumption..]).
    assert (HL2 : L opnd fexp s2 (toks e2) term) by (apply IH; [cbn [size]; clear; lia|assumption..]).
    rewrite toks_bin, !wrap_level, ast_levels_are_soy_levels. rewrite wrap_level, ast_levels_are_soy_levels in HP.
    assert (Hsz1 : (size e1 < size (NBin op p e1 e2))%nat) by (cbn [size]; clear; lia).
    apply (W L_bin_P P op _ _ _ _ (L_wrap_P P _ _ _ HL1 (fun Eb => IH0 e1 Hsz1 Hw1 Hl1 s1 E1 P (pos_ok_left P _ _ _ _ Eb HP))) (L_wrap _ _ _ HL2)).
  - (* tern *) destruct Hwf as (_ & Hw1 & Hw2 & Hw3). destruct Hlo as (Hl1 & Hl2 & Hl3).
    destruct (print_node e1) as [s1|] eqn:E1; cbn [obind] in Hp; [|discriminate].
    destruct (print_node e2) as [s2|] eqn:E2; cbn [obind] in Hp; [|discriminate].
    destruct (print_node e3) as [s3|] eqn:E3; cbn [obind] in Hp; [|discriminate]. injection Hp as <-.
    assert (HL1 : L opnd fexp s1 (toks e1) term) by (apply IH; [cbn [size]; clear; lia|assumption..]).
    assert (HL2 : L opnd fexp s2 (toks e2) term) by (apply IH; [cbn [size]; clear; lia|assumption..]).
    assert (HL3 : L opnd fexp s3 (toks e3) term) by (apply IH; [cbn [size]; clear; lia|assumption..]).
    rewrite toks_tern, wrap_level. rewrite wrap_level in HP.
    assert (Hsz1 : (size e1 < size (NTern p e1 e2 e3))%nat) by (cbn [size]; clear; lia).
    apply (W L_tern_P P _ _ _ _ _ _ (L_wrap_P P _ _ _ HL1 (fun Eb => IH0 e1 Hsz1 Hw1 Hl1 s1 E1 P (pos_ok_left P _ _ _ _ Eb HP))) HL2 HL3).
Qed.

Theorem lex_print : forall e, wf_expr e -> lex_ok e -> forall txt, print_node e = Some txt -> L opnd fexp txt (toks e) term.
Proof. intros e Hwf Hlo txt Hp. exact (lex_print_gen e Hwf Hlo txt Hp opnd (pos_ok_opnd txt)). Qed.

(* the expression where the last item sent ended a term (the list of {for $x in e}, after the identifier "in"):
   the same items, provided the printed text does not start with "-" *)
Theorem lex_print_any : forall e, wf_expr e -> lex_ok e -> forall txt, print_node e = Some txt -> no_minus txt ->
  L anyty fexp txt (toks e) term.
Proof. intros e Hwf Hlo txt Hp Hm. exact (lex_print_gen e Hwf Hlo txt Hp anyty (or_intror Hm)). Qed.


End Main.
