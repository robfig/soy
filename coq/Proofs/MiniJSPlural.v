(* C04, a message whose only child is a {plural}, rendered WITHOUT a translation bundle:
     {msg desc=".."}{plural v}{case z1}b1 .. {case zk}bk{default}d{/plural}{/msg}
   with case bodies of raw text and placeholders (print, call: msg_ok).
   soyhtml walkPlural evaluates v (an integer, else an error), renders the first case whose number equals it, else the
   default; soyjs walkPlural writes
       switch (v) {  case z1: <statements of b1> break;  ..  default: <statements of d>  }
   (no break after the default clause).  The MiniJS statement is JSSwitch (cgen v) (case JENum z_i: jb_i .. default: jd)
   with the blocks generated one after the other from the generator's counter (c04_plgen); its printed form
   (Model/MiniJS.v sprint) differs from the emitted text exactly by the line "break;" after the default clause
   (c04_plprint_sprint), which has no effect as the last clause.

   The plural is a constructor of cstmt (SMsgPl; its MiniJS statement JSPlural is executed as that switch and printed
   without the "break;"), so its step is a case of gen_correct_partial_stmt.
   [gen_correct_partial_plural] states the same three-sided step over a LIST of cases: it is the step of the statement
   SMsgPl pname v (c04_qof cs d), read through the equations c04_qof_* that tie the two formulations. *)
From Soy Require Import Model.Bytes Model.Num Model.Values Model.Outcome Model.Ast Model.JsGen Model.MiniJS
  Model.Escape Model.Directives Model.Print Generated.Tables Model.Interp
  Proofs.EscapeProofs Proofs.MiniJSProofs Proofs.MiniJSPrint Proofs.MiniJSStmt Model.MsgId Proofs.MsgIdProofs
  Proofs.MiniJSCtl Proofs.MiniJSGo Proofs.MiniJSGen Proofs.MiniJSSim.
Open Scope N_scope.

(* the blocks of the cases, generated in order: the counter runs through them *)
Fixpoint c04_plgen (mode : N) (buf : bstr) (sc : list (list (bstr * bstr))) (n : N) (cs : list (Z * cblk)) : list (Z * jblk) * N :=
  match cs with
  | [] => ([], n)
  | zb :: r => let '(jb, n1) := bgen mode buf sc n (snd zb) in
               let '(jr, n2) := c04_plgen mode buf sc n1 r in ((fst zb, jb) :: jr, n2)
  end.
Definition c04_plk (jcs : list (Z * jblk)) (jd : jblk) : jcases :=
  fold_right (fun zj r => JKCase (JENum (fst zj)) [] (snd zj) r) (JKDefault jd) jcs.
Definition c04_plcases (cs : list (Z * cblk)) : list node := map (fun zb => NMsgPluralCase 0 (fst zb) (mnodes (snd zb))) cs.
Definition c04_plural_node (pname : bstr) (v : cexpr) (cs : list (Z * cblk)) (d : cblk) : node :=
  NMsg 0 0 [] [] [NMsgPlural 0 pname (cnode v) (c04_plcases cs) (mnodes d)].
(* the body both walkPlural's select *)
Fixpoint c04_plpick (i : Z) (cs : list (Z * cblk)) (d : cblk) : cblk :=
  match cs with [] => d | zb :: r => if (i =? fst zb)%Z then snd zb else c04_plpick i r d end.

(* the text soyjs writes *)
Fixpoint c04_plprint_cases (ind : nat) (jcs : list (Z * jblk)) : list chunk :=
  match jcs with
  | [] => []
  | zj :: r => (sp_ind ind ++ [CText t_case; CNum (dec_of_Z (fst zj)); CText t_colon] ++ [CText t_nl])
               ++ bprint (S ind) (snd zj) ++ (sp_ind (S ind) ++ [CText t_break] ++ [CText t_nl]) ++ c04_plprint_cases ind r
  end.
Definition c04_plprint (ind : nat) (jv : jexpr) (jcs : list (Z * jblk)) (jd : jblk) : list chunk :=
  sp_ind ind ++ [CText t_switch_open] ++ jprint jv ++ [CText t_for_close; CText t_nl]
  ++ c04_plprint_cases (S ind) jcs
  ++ (sp_ind (S ind) ++ [CText t_default] ++ [CText t_nl]) ++ bprint (S (S ind)) jd
  ++ (sp_ind ind ++ [CText t_rbrace] ++ [CText t_nl]).

(* the emitted text against the printed form of the MiniJS statement: the same, except that sprint closes the default
   clause with "break;" (the last clause of the switch: no effect) *)
Definition c04_plprint_brk (ind : nat) (jv : jexpr) (jcs : list (Z * jblk)) (jd : jblk) : list chunk :=
  sp_ind ind ++ [CText t_switch_open] ++ jprint jv ++ [CText t_for_close; CText t_nl]
  ++ c04_plprint_cases (S ind) jcs
  ++ (sp_ind (S ind) ++ [CText t_default] ++ [CText t_nl]) ++ bprint (S (S ind)) jd
  ++ (sp_ind (S (S ind)) ++ [CText t_break] ++ [CText t_nl])
  ++ (sp_ind ind ++ [CText t_rbrace] ++ [CText t_nl]).
Lemma c04_plk_kprint ind jd : forall jcs,
  kprint ind (c04_plk jcs jd) = c04_plprint_cases ind jcs ++ (sp_ind ind ++ [CText t_default] ++ [CText t_nl]) ++ bprint (S ind) jd ++ (sp_ind (S ind) ++ [CText t_break] ++ [CText t_nl]).
Proof.
  induction jcs as [|zj r IH]; cbn [c04_plk fold_right c04_plprint_cases].
  - rewrite kprint_default. chunks_eq.
  - fold (c04_plk r jd). rewrite kprint_case, IH. cbn [jk_values jprint]. chunks_eq.
Qed.
Lemma c04_plprint_sprint ind jv jcs jd : sprint ind (JSSwitch jv (c04_plk jcs jd)) = c04_plprint_brk ind jv jcs jd.
Proof. rewrite sprint_switch, c04_plk_kprint. unfold c04_plprint_brk. chunks_eq. Qed.

(* ------------------------------------------------------------------ *)
(* the plural as a STATEMENT of the subset: the node, the generated blocks, the text and the selected body of the
   formulation over lists of cases are those of the statement SMsgPl pname v (c04_qof cs d); its MiniJS statement is
   JSPlural -- executed as the JSSwitch above, printed without the "break;" after the default clause, i.e. exactly the
   emitted text c04_plprint -- so templates with plural messages are programs of the file / registry theorems *)
Fixpoint c04_qof (cs : list (Z * cblk)) (d : cblk) : cplur :=
  match cs with [] => QDflt d | zb :: r => QCase (fst zb) (snd zb) (c04_qof r d) end.
Lemma c04_qof_cnodes d : forall cs, qcnodes (c04_qof cs d) = c04_plcases cs.
Proof. induction cs as [|zb r IH]; [reflexivity|]. cbn [c04_qof]. rewrite qcnodes_case, IH. reflexivity. Qed.
Lemma c04_qof_dnodes d : forall cs, qdnodes (c04_qof cs d) = mnodes d.
Proof. induction cs as [|zb r IH]; [reflexivity|]. cbn [c04_qof]. rewrite qdnodes_case, IH. reflexivity. Qed.
Lemma c04_qof_node pname v cs d : snode (SMsgPl pname v (c04_qof cs d)) = c04_plural_node pname v cs d.
Proof. rewrite snode_msgpl, c04_qof_cnodes, c04_qof_dnodes. reflexivity. Qed.
Lemma c04_qof_gen mode buf sc d jd : forall cs n jcs n1 n2,
  c04_plgen mode buf sc n cs = (jcs, n1) -> bgen mode buf sc n1 d = (jd, n2) -> qgen mode buf sc n (c04_qof cs d) = (c04_plk jcs jd, n2).
Proof.
  induction cs as [|zb r IH]; intros n jcs n1 n2 Eg Ed.
  - cbn in Eg. inversion Eg; subst. cbn [c04_qof c04_plk fold_right]. rewrite qgen_dflt, Ed. reflexivity.
  - cbn [c04_plgen] in Eg. destruct (bgen mode buf sc n (snd zb)) as [jb nb] eqn:Eb. destruct (c04_plgen mode buf sc nb r) as [jr nr] eqn:Er. inversion Eg; subst. clear Eg.
    cbn [c04_qof]. rewrite qgen_case, Eb, (IH nb jr n1 n2 Er Ed). reflexivity.
Qed.
Lemma c04_qof_sgen mode buf sc pname v cs d n jcs n1 jd n2 :
  c04_plgen mode buf sc n cs = (jcs, n1) -> bgen mode buf sc n1 d = (jd, n2) ->
  sgen mode buf sc n (SMsgPl pname v (c04_qof cs d)) = (JSPlural (cgen sc v) (c04_plk jcs jd), (sc, n2)).
Proof. intros Eg Ed. rewrite sgen_msgpl, (c04_qof_gen mode buf sc d jd cs n jcs n1 n2 Eg Ed). reflexivity. Qed.
Lemma c04_qof_out ij mode pt dv cl env i d : forall cs,
  qout ij mode pt dv cl env i (c04_qof cs d)
  = if msg_ok (c04_plpick i cs d) then bout ij mode pt dv cl env (c04_plpick i cs d) else None.
Proof.
  induction cs as [|zb r IH]; [reflexivity|]. cbn [c04_qof c04_plpick]. rewrite qout_case. destruct (i =? fst zb)%Z; [reflexivity|exact IH].
Qed.
(* the statement's meaning: the value of v is an integer and the selected body is rendered as a message *)
Lemma c04_qof_sout ij mode pt dv cl env pname v cs d i : ceval ij env v = Some (VInt i) ->
  sout ij mode pt dv cl env (SMsgPl pname v (c04_qof cs d)) = sout ij mode pt dv cl env (SMsg (c04_plpick i cs d)).
Proof. intro Ev. rewrite sout_msgpl, Ev, c04_qof_out, sout_msg. destruct (msg_ok (c04_plpick i cs d)); reflexivity. Qed.
Lemma c04_qof_swf lv pname v cs d :
  swf lv (SMsgPl pname v (c04_qof cs d)) = cwf lv v && (forallb (fun zb => msg_ok (snd zb) && bwf lv (snd zb)) cs && (msg_ok d && bwf lv d)).
Proof.
  rewrite swf_msgpl. f_equal. induction cs as [|zb r IH]; [reflexivity|]. cbn [c04_qof forallb]. rewrite qwf_case, IH. rewrite <- !andb_assoc. reflexivity.
Qed.
Lemma c04_js_plural_switch jfn je jv jk : js_exec jfn je (JSPlural jv jk) = js_exec jfn je (JSSwitch jv jk).
Proof. reflexivity. Qed.
Lemma c04_plk_kprint_nb ind jd : forall jcs,
  kprint_nb ind (c04_plk jcs jd) = c04_plprint_cases ind jcs ++ (sp_ind ind ++ [CText t_default] ++ [CText t_nl]) ++ bprint (S ind) jd.
Proof.
  induction jcs as [|zj r IH]; cbn [c04_plk fold_right c04_plprint_cases].
  - rewrite kprint_nb_default. chunks_eq.
  - fold (c04_plk r jd). rewrite kprint_nb_case, IH. cbn [jk_values jprint]. chunks_eq.
Qed.
(* the printed form of the statement is the emitted text *)
Lemma c04_plprint_sprint_plural ind jv jcs jd : sprint ind (JSPlural jv (c04_plk jcs jd)) = c04_plprint ind jv jcs jd.
Proof. rewrite sprint_plural, c04_plk_kprint_nb. unfold c04_plprint. chunks_eq. Qed.

(* the depth and the static condition of the statement, from those of the bodies *)
Lemma c04_qof_depth D d : forall cs, (forall zb, In zb cs -> (bdepth (snd zb) <= D)%nat) -> (bdepth d <= D)%nat -> (qdepth (c04_qof cs d) <= D)%nat.
Proof.
  induction cs as [|zb r IH]; intros Hall Hd; [exact Hd|]. cbn [c04_qof]. rewrite qdepth_case.
  pose proof (Hall zb (or_introl eq_refl)). specialize (IH (fun zb' H' => Hall zb' (or_intror H')) Hd). lia.
Qed.

Section PluralStep.
Variable cf : cfg.
Variable o : jopts.
Variable cc : callctx.
Variable lv : list bstr.
Hypothesis Hob : c_oblig cf = [].
Hypothesis Hcc : callctx_ok cf o cc.

(* the step of the statement SMsgPl pname v (c04_qof cs d), read over the list of cases; the fuel asked is one less than
   sdepth of the statement would ask, so the Go side and the generator are taken at their own depths *)
Theorem gen_correct_partial_plural pname v cs d D st je jst fuel i text env' old :
  sim cf cc st je jst old ->
  (cdepth v < D)%nat -> cwf lv v = true ->
  (forall zb, In zb cs -> msg_ok (snd zb) = true /\ bwf lv (snd zb) = true /\ (bdepth (snd zb) <= D)%nat) ->
  msg_ok d = true -> bwf lv d = true -> (bdepth d <= D)%nat ->
  (cc_fuel cc + S (S (S D)) < fuel)%nat -> lvok lv (j_scope jst) ->
  ceval (c_ij cf) (sc_lookup (ctx st)) v = Some (VInt i) ->
  sout (c_ij cf) (mode st) go_print_text (cc_denv cc) (cc_callee cc) (sc_lookup (ctx st)) (SMsg (c04_plpick i cs d)) = Some (text, env') ->
  forall jcs n1 jd n2,
  c04_plgen (mode st) (j_buf jst) (j_scope jst) (j_n jst) cs = (jcs, n1) -> bgen (mode st) (j_buf jst) (j_scope jst) n1 d = (jd, n2) ->
  let nd := c04_plural_node pname v cs d in
  let j := JSSwitch (cgen (j_scope jst) v) (c04_plk jcs jd) in
  exists st' ws rv je' jst',
    (* Go *)  walk cf fuel nd st = (Ok rv, st') /\ wrote st st' ws /\ concat_b ws = text
              /\ mode st' = mode st /\ tl (ctx st') = tl (ctx st) /\ (forall k, sc_lookup (ctx st') k = env' k)
    (* JS *)  /\ js_exec (cc_jfn cc) je j = Ok je' /\ je_data je' = je_data je
    (* Gen *) /\ jwalk o fuel nd jst = Ok (tt, jst') /\ j_out jst' = rev (c04_plprint (j_indent jst) (cgen (j_scope jst) v) jcs jd) ++ j_out jst
              /\ j_indent jst' = j_indent jst /\ j_buf jst' = j_buf jst /\ j_scope jst' = j_scope jst /\ j_n jst' = n2
    /\ sim cf cc st' je' jst' (old ++ text) /\ lvok lv (j_scope jst').
Proof.
  intros HS Hv Hwv Hall Hmd Hwd Hdd Hfuel Hlv Ev E jcs n1 jd n2 Eg Ed nd j.
  pose proof Hcc as (HCN & HNB & Hdenv & HGo & _). pose proof HS as (Hg & Hd & ER & _ & G & _ & Hmode).
  set (s := SMsgPl pname v (c04_qof cs d)).
  assert (Hq : (qdepth (c04_qof cs d) <= D)%nat) by (apply c04_qof_depth; [intros zb Hzb; apply (Hall zb Hzb)|exact Hdd]).
  assert (Hswf : swf lv s = true).
  { unfold s. rewrite c04_qof_swf, Hwv, Hmd, Hwd, andb_true_r. apply forallb_forall. intros zb Hzb. destruct (Hall zb Hzb) as (-> & -> & _). reflexivity. }
  assert (Es : sout (c_ij cf) (mode st) go_print_text (cc_denv cc) (cc_callee cc) (sc_lookup (ctx st)) s = Some (text, env'))
    by (unfold s; rewrite (c04_qof_sout _ _ _ _ _ _ pname v cs d i Ev); exact E).
  pose proof (c04_qof_sgen _ _ _ pname v cs d _ jcs n1 jd n2 Eg Ed) as Egs. fold s in Egs.
  destruct fuel as [|F]; [lia|].
  assert (HGen : gres o (jwalk o (S F) (snode s)) jst (sprint (j_indent jst) (JSPlural (cgen (j_scope jst) v) (c04_plk jcs jd)))
                      (j_indent jst) (j_buf jst) (j_auto jst) (j_scope jst) n2).
  { destruct (sgen_print_all o HCN HNB) as (_ & _ & _ & _ & _ & GQq).
    apply (sgen_print_msgpl o HNB pname v _ (GQq _) lv F jst _ _ _ _ _ _ (j_scope jst) (j_n jst)); [lia|lia|exact (gi_nonempty _ _ _ G)|exact Hlv|exact Hswf|apply shape_refl|rewrite Hmode; exact Egs]. }
  destruct (sim_step_sides cf o cc lv st je jst s (S F) text env' old Hcc HS Hswf Hlv Es)
    as (st' & ws & rv & je' & jst' & A1 & A2 & A3 & A4 & A5 & A6 & A7 & A8 & A9 & A10 & A11 & A12 & _ & A14 & A15).
  - destruct (interp_all cf Hob (er_core_ij _ _ _ _ ER) (cc_denv cc) Hdenv (cc_callee cc) (cc_fuel cc) HGo) as (_ & _ & _ & _ & _ & GPq).
    apply (go_msgpl cf (er_core_ij _ _ _ _ ER) (cc_denv cc) (cc_callee cc) (cc_fuel cc) pname v _ (GPq _) F st text (sc_lookup (ctx st)) env');
      [lia|lia|exact Hg|exact (dinv_nonempty _ _ Hd)|exact (conj (fun k => eq_refl) Hd)|exact (er_core_some _ _ _ _ ER)|exact Es].
  - intros j0 sc0 n0 Eg0. rewrite Egs in Eg0. inversion Eg0; subst. exact HGen.
  - rewrite Egs in A7, A10. cbn [fst] in A7, A10. rewrite c04_plprint_sprint_plural in A10.
    (* the generator's state afterwards is the one the generator's side speaks of *)
    destruct HGen as (x & Ex & _ & (_ & _ & _ & Sx & Nx) & _). rewrite A9 in Ex. inversion Ex; subst x.
    unfold nd. rewrite <- c04_qof_node. fold s.
    exists st', ws, rv, je', jst'. repeat (split; [assumption|]). exact A15.
Qed.
End PluralStep.
