(* C11, whole program: rendering with a catalogue whose entries are identity
   translations (or absent) against rendering without a catalogue, through the
   relational reading of the walker (Proofs/InterpRelProofs.v). *)
From Soy Require Import Model.Bytes Model.Outcome Model.Num Model.Values Model.Ast Model.MsgId
  Model.Escape Model.Interp Model.MsgParts Spec.MsgCat Proofs.MsgPartsProofs Proofs.InterpRelProofs Proofs.InterpPosProofs.
Open Scope N_scope.

Section Whole.
Variable cf : cfg.
Variable plural_index : Z -> nat.
Variable bd : bundle.

(* the catalogue entry of a message, if there is one, is its identity
   translation: msgstr = msgid for a message without plural; for a PO plural,
   msgstr[plural_index n] is the msgid of the case the source selects for n *)
Definition ident_ok (id : N) (body : list node) : Prop :=
  match bundle_message bd id with
  | None => True
  | Some m =>
      (reads_back body = true /\ coherent body /\ m = new_message [] [write_body body]) \/
      (exists p vn pv pc cb dflt strs,
          body = [NMsgPlural p vn pv [NMsgPluralCase pc 1%Z cb] dflt] /\ vn <> [] /\
          m = new_message vn strs /\ reads_back cb = true /\ reads_back dflt = true /\ coherent (dflt ++ cb) /\
          forall i, nth_error strs (plural_index i) = Some (write_body (if (i =? 1)%Z then cb else dflt)))
  end.

Lemma ident_ok_0 body : ident_ok 0 body.
Proof. unfold ident_ok, bundle_message. cbn. exact I. Qed.

Notation okP := (okP ident_ok).

Hypothesis Hreg : Forall (fun t => okP (t_node t)) (r_templates (c_reg cf)).

Lemma flat_okP_items body p n b : Forall okP body -> In (NMsgPlaceholder p n b) body -> okP b.
Proof. intros H Hin. rewrite Forall_forall in H. apply (H _ Hin). Qed.

(* [mrel] is not symmetric (its left side may run out of fuel) and both directions are needed: the source rendering
   refines the rendering with the catalogue, and conversely.  [rel d ms mc] reads [mrel] from the source side [ms] to
   the catalogue side [mc] (d = true) or back (d = false); every fact about [mrel] used below holds both ways. *)
Definition rel (d : bool) {A} (ms mc : M A) : Prop := if d then mrel ms mc else mrel mc ms.

Lemma rel_trans d {A} (a b c : M A) : rel d a b -> rel d b c -> rel d a c.
Proof. destruct d; intros H1 H2; [exact (mrel_trans _ _ _ H1 H2) | exact (mrel_trans _ _ _ H2 H1)]. Qed.
Lemma rel_bind d {A B} (m1 m2 : M A) (f1 f2 : A -> M B) :
  rel d m1 m2 -> (forall x, rel d (f1 x) (f2 x)) -> rel d (mbind m1 f1) (mbind m2 f2).
Proof. destruct d; apply mrel_bind. Qed.
Lemma rel_ret d {A} (x : A) : rel d (ret x) (ret x). Proof. destruct d; apply mrel_ret. Qed.
Lemma rel_fail d {A} m : rel d (@fail A m) (fail m). Proof. destruct d; apply mrel_fail. Qed.
Lemma rel_write d w : rel d (write w) (write w). Proof. destruct d; apply mrel_write. Qed.
Lemma rel_ext_l d {A} (a a' b : M A) : (forall s, a s = a' s) -> rel d a' b -> rel d a b.
Proof. destruct d; [apply mrel_ext_l | apply mrel_ext_r]. Qed.
Lemma rel_ext_r d {A} (a b b' : M A) : (forall s, b s = b' s) -> rel d a b' -> rel d a b.
Proof. destruct d; [apply mrel_ext_r | apply mrel_ext_l]. Qed.
Lemma rel_write_app d a c : rel d (_ <-- write a ;;; write c) (write (a ++ c)).
Proof. destruct d; [apply mrel_write_app | apply mrel_app_write]. Qed.
Lemma rel_write_nil d : rel d (ret tt) (write []).
Proof. destruct d; [apply mrel_write_nil_r | apply mrel_write_nil_l]. Qed.

Lemma rel_drop_unit d {B} (m : M unit) (k1 : unit -> M B) (k2 : M B) :
  rel d m (write []) -> (forall x, rel d (k1 x) k2) -> rel d (mbind m k1) k2.
Proof.
  destruct d; cbn [rel]; intros Hm Hk; [apply mrel_bind_l_unit | apply mrel_bind_r_unit]; try exact Hk;
    intros s1 s2 He; [specialize (Hm s1 s2 He) | specialize (Hm s1 s2 He)]; unfold res_rel in Hm.
  - destruct (eqv_faultfree _ _ He) as [_ [_ [H3 H4]]]. rewrite (write_wr s2 [] H3 H4) in Hm. cbn [fst snd] in Hm.
    destruct Hm as [Hf1 | [Ho Hs]]; [left; exact Hf1 | right].
    split; [exists tt; exact Ho|]. eapply st_equiv_trans; [exact Hs|]. apply eqv_wr_nil, st_equiv_sym, (st_equiv_refl_l _ _ (st_equiv_sym _ _ He)).
  - destruct (eqv_faultfree _ _ He) as [H1 [H2 _]]. rewrite (write_wr s1 [] H1 H2) in Hm. cbn [fst snd] in Hm.
    destruct Hm as [Hf | [Ho Hs]]; [discriminate|].
    split; [exists tt; symmetry; exact Ho|]. eapply st_equiv_trans; [|exact Hs].
    apply st_equiv_sym, eqv_wr_nil, (st_equiv_refl_l _ _ He).
Qed.

Lemma rel_eval d w1 w2 : (forall n, okP n -> rel d (w1 n) (w2 n)) -> forall e, okP e -> rel d (eval w1 e) (eval w2 e).
Proof. destruct d; intros Hw e He; apply (eval_rel ident_ok _ _ Hw e He). Qed.
Lemma rel_msg_body d w1 w2 : (forall n, okP n -> rel d (w1 n) (w2 n)) ->
  forall mp ns, Forall okP ns -> rel d (msg_body w1 mp ns) (msg_body w2 mp ns).
Proof. destruct d; intros Hw mp ns Hns; apply (msg_body_rel ident_ok ident_ok_0 _ _ Hw mp ns Hns). Qed.

Definition pos_insensitive (w : node -> M value) : Prop :=
  forall b1 b2, okP b1 -> okP b2 -> pstrip b1 = pstrip b2 -> mrel (w b1) (w b2).

Lemma okP_plural_parts p vn pv pc cv cb dflt :
  Forall okP [NMsgPlural p vn pv [NMsgPluralCase pc cv cb] dflt] -> okP pv /\ Forall okP cb /\ Forall okP dflt.
Proof.
  intros H. inversion H as [|? ? Hp _]; subst. cbn [InterpRelProofs.okP fold_right] in Hp.
  destruct Hp as [Hv [[Hc _] Hd]]. repeat split; [exact Hv | apply okP_all, Hc | apply okP_all, Hd].
Qed.

Lemma Forall_app_okP l1 l2 : Forall okP l1 -> Forall okP l2 -> Forall okP (l1 ++ l2).
Proof. intros H1 H2. apply Forall_app. split; assumption. Qed.

Lemma src_sub (src cb dflt : list node) : src = cb \/ src = dflt -> forall x, In x src -> In x (dflt ++ cb).
Proof. intros [-> | ->] x Hx; apply in_or_app; [right | left]; exact Hx. Qed.

Section Dir.
Variable d : bool.

(* ---- a flat message body against its own items, each placeholder resolved to the
        first placeholder of [phs] carrying its name; [ws] walks the source, [wc] the items ---- *)
Section Flat.
Variables ws wc : node -> M value.
Hypothesis Hw : forall n, okP n -> rel d (ws n) (wc n).
Hypothesis Hpos : pos_insensitive ws.
Hypothesis Hraw : forall p t, rel d (ws (NRawText p t)) (_ <-- write t ;;; ret VUndef).

Lemma flat mp phs body : coherent phs -> Forall okP phs -> (forall x, In x body -> In x phs) ->
  forallb flat_node body = true ->
  forall raw (m : M unit), rel d m (write raw) ->
  rel d (_ <-- m ;;; msg_body ws mp body) (run_items wc (map (resolve phs) (merge_items_go (source_items body) raw))).
Proof.
  intros Hco Hokp. induction body as [|n r IH]; intros Hsub Hf raw m Hm.
  - cbn [source_items flat_map merge_items_go msg_body]. destruct raw as [|c raw].
    + cbn [map run_items]. apply rel_drop_unit; [exact Hm | intros _; apply rel_ret].
    + cbn [map resolve run_items]. apply rel_bind; [exact Hm | intros _; apply rel_ret].
  - cbn [forallb] in Hf. apply Bool.andb_true_iff in Hf as [Hn Hr].
    assert (forall x, In x r -> In x phs) as Hsub' by (intros x Hx; apply Hsub; right; exact Hx).
    destruct n; cbn [flat_node] in Hn; try discriminate.
    + (* raw text: joined to the text collected so far *)
      change (source_items (NRawText p text :: r)) with (TText text :: source_items r).
      cbn [merge_items_go msg_body].
      apply rel_ext_l with (a' := _ <-- (_ <-- m ;;; _ <-- ws (NRawText p text) ;;; ret tt) ;;; msg_body ws mp r).
      { intros s. rewrite mbind_assoc_pt. unfold mbind at 1 3. destruct (m s) as [[[]| | | | |] s']; try reflexivity.
        rewrite mbind_assoc_pt. reflexivity. }
      apply (IH Hsub' Hr (raw ++ text)).
      eapply rel_trans; [|apply rel_write_app].
      apply rel_bind; [exact Hm|]. intros _.
      eapply rel_trans; [apply rel_bind; [apply Hraw | intros v; apply rel_ret]|].
      apply rel_ext_l with (a' := write text); [|apply rel_write].
      intros s. rewrite mbind_assoc_pt. unfold mbind, ret. destruct (write text s) as [[[]| | | | |] s']; reflexivity.
    + (* placeholder: this occurrence against the first one with the same name *)
      change (source_items (NMsgPlaceholder p name n :: r)) with (TPh p name n :: source_items r).
      cbn [msg_body merge_items_go].
      assert (In (NMsgPlaceholder p name n) phs) as Hin by (apply Hsub; left; reflexivity).
      destruct (find_ph_same phs p name n Hco Hin) as [p' [b' [Hfind [Hin' Hsame]]]].
      pose proof (flat_okP_items _ _ _ _ Hokp Hin) as Hon. pose proof (flat_okP_items _ _ _ _ Hokp Hin') as Hob.
      assert (rel d (_ <-- ws n ;;; msg_body ws mp r)
                    (_ <-- wc b' ;;; run_items wc (map (resolve phs) (merge_items_go (source_items r) [])))) as Hph.
      { apply rel_bind.
        - eapply rel_trans; [|apply Hw, Hob].
          destruct d; [apply (Hpos n b' Hon Hob); symmetry; exact Hsame | apply (Hpos b' n Hob Hon Hsame)].
        - intros _. apply rel_ext_l with (a' := _ <-- ret tt ;;; msg_body ws mp r); [intros s; reflexivity|].
          apply (IH Hsub' Hr [] (ret tt)). apply rel_write_nil. }
      destruct raw as [|c raw]; cbn [map resolve run_items]; rewrite Hfind; cbn [run_items].
      * apply rel_drop_unit; [exact Hm | intros _; exact Hph].
      * apply rel_bind; [exact Hm | intros _; exact Hph].
Qed.
End Flat.

(* ---- one message: source rendering against rendering with the catalogue.  A case body of a plural is walked
        as a synthetic message by a source walker [ws'] of its own (one unit of fuel less) ---- *)
Section Msg.
Variables ws ws' wc : node -> M value.
Hypothesis Hw : forall n, okP n -> rel d (ws n) (wc n).
Hypothesis Hw' : forall n, okP n -> rel d (ws' n) (wc n).
Hypothesis Hraw : forall p t, rel d (ws (NRawText p t)) (_ <-- write t ;;; ret VUndef).
Hypothesis Hraw' : forall p t, rel d (ws' (NRawText p t)) (_ <-- write t ;;; ret VUndef).
Hypothesis Hpos : pos_insensitive ws.
Hypothesis Hpos' : pos_insensitive ws'.
Hypothesis Hsyn : forall mp b, Forall okP b -> rel d (ws (NMsg mp 0 [] [] b)) (_ <-- msg_body ws' mp b ;;; ret VUndef).

Lemma msg mp id body : ident_ok id body -> Forall okP body ->
  rel d (msg_body ws mp body) (eval_msg plural_index bd wc mp id body).
Proof.
  unfold ident_ok. intros Hid Hok. destruct (bundle_message bd id) as [m|] eqn:E.
  - destruct Hid as [[Hrb [Hco ->]] | [p [vn [pv [pc [cb [dflt [strs [-> [Hvn [-> [Hrc [Hrd [Hco Hstrs]]]]]]]]]]]]]].
    + rewrite (identity_flat plural_index bd wc mp id body Hrb E).
      destruct (reads_back_sound body Hrb) as [Hf _].
      apply rel_ext_l with (a' := _ <-- ret tt ;;; msg_body ws mp body); [intros s; reflexivity|].
      apply (flat ws wc Hw Hpos Hraw mp body body Hco Hok (fun x H => H) Hf [] (ret tt)). apply rel_write_nil.
    + destruct (okP_plural_parts _ _ _ _ _ _ _ Hok) as [Hv [Hokc Hokd]].
      destruct (reads_back_sound cb Hrc) as [Hfc _]. destruct (reads_back_sound dflt Hrd) as [Hfd _].
      eapply rel_ext_r; [intros s; apply (plural_selects plural_index bd wc mp id p vn pv _ dflt strs s (or_introl Hvn) E)|].
      cbn [msg_body]. apply rel_bind; [apply (rel_eval d ws wc Hw pv Hv)|].
      intros v. destruct v; try apply rel_fail.
      assert (forall src, (src = cb \/ src = dflt) -> Forall okP src -> forallb flat_node src = true ->
                nth_error strs (plural_index z) = Some (write_body src) ->
                rel d (_ <-- (_ <-- ws (NMsg mp 0 [] [] src) ;;; ret tt) ;;; ret tt)
                      (eval_form wc [NMsgPlural p vn pv [NMsgPluralCase pc 1%Z cb] dflt] strs (plural_index z))) as Hsrc.
      { intros src Hs Hoks Hfs Hk.
        rewrite (identity_form wc p vn pv pc 1%Z cb dflt strs (plural_index z) src Hrc Hrd Hs Hk).
        eapply rel_trans.
        - apply rel_bind; [apply rel_bind; [apply Hsyn, Hoks | intros x; apply rel_ret] | intros x; apply rel_ret].
        - apply rel_ext_l with (a' := _ <-- ret tt ;;; msg_body ws' mp src).
          { intros s. rewrite !mbind_assoc_pt. unfold mbind, ret.
            destruct (msg_body ws' mp src s) as [[[]| | | | |] s']; reflexivity. }
          apply (flat ws' wc Hw' Hpos' Hraw' mp (dflt ++ cb) src Hco (Forall_app_okP _ _ Hokd Hokc) (src_sub _ _ _ Hs) Hfs [] (ret tt)).
          apply rel_write_nil. }
      cbn [plural_pick]. specialize (Hstrs z). destruct (z =? 1)%Z.
      * apply (Hsrc cb (or_introl eq_refl) Hokc Hfc Hstrs).
      * apply (Hsrc dflt (or_intror eq_refl) Hokd Hfd Hstrs).
  - rewrite (missing_msg plural_index bd wc mp id body E).
    apply (rel_msg_body d ws wc Hw mp body Hok).
Qed.
End Msg.
End Dir.

Lemma walk_refl f : forall n, okP n -> mrel (walk cf f n) (walk cf f n).
Proof.
  induction f as [|f IH]; intros n Hn; [apply mrel_fuel|].
  cbn [walk]. apply (walk_body_rel cf ident_ok ident_ok_0 Hreg _ _ IH n Hn).
Qed.

Lemma walk_mono f : forall n, okP n -> mrel (walk cf f n) (walk cf (S f) n).
Proof.
  induction f as [|f IH]; intros n Hn; [apply mrel_fuel|].
  change (mrel (walk_body cf (walk cf f) n) (walk_body cf (walk cf (S f)) n)).
  apply (walk_body_rel cf ident_ok ident_ok_0 Hreg _ _ IH n Hn).
Qed.

Lemma walk_mono_le f g : (f <= g)%nat -> forall n, okP n -> mrel (walk cf f n) (walk cf g n).
Proof.
  induction 1 as [|g Hle IH]; intros n Hn; [apply walk_refl, Hn|].
  eapply mrel_trans; [apply IH, Hn | apply walk_mono, Hn].
Qed.

Lemma walk_raw d f p t : rel d (walk cf (S f) (NRawText p t)) (_ <-- write t ;;; ret VUndef).
Proof.
  change (walk cf (S f) (NRawText p t)) with (_ <-- modify (fun st => set_cur st p) ;;; (_ <-- write t ;;; ret VUndef)).
  destruct d; [apply mrel_set_cur_l | apply mrel_set_cur_r]; (apply mrel_bind; [apply mrel_write | intros _; apply mrel_ret]).
Qed.

Lemma walk_syn d f mp b : Forall okP b ->
  rel d (walk cf (S f) (NMsg mp 0 [] [] b)) (_ <-- msg_body (walk cf f) mp b ;;; ret VUndef).
Proof.
  intros Hb.
  change (walk cf (S f) (NMsg mp 0 [] [] b)) with
    (_ <-- modify (fun st => set_cur st mp) ;;; (_ <-- msg_body (walk cf f) mp b ;;; ret VUndef)).
  destruct d; [apply mrel_set_cur_l | apply mrel_set_cur_r]; (apply mrel_bind; [|intros _; apply mrel_ret]);
    apply (msg_body_rel ident_ok ident_ok_0 _ _ (walk_refl f) mp b Hb).
Qed.

Theorem nocat_refines_cat f : forall n, okP n -> mrel (walk cf f n) (walk_b cf plural_index bd f n).
Proof.
  induction f as [|f IH]; intros n Hn; [apply mrel_fuel|].
  cbn [walk walk_b].
  destruct n; try (apply (walk_body_rel cf ident_ok ident_ok_0 Hreg _ _ IH _ Hn)).
  cbn [InterpRelProofs.okP] in Hn. destruct Hn as [Hid Hb]. apply okP_all in Hb.
  change (walk_body cf (walk cf f) (NMsg p id meaning desc body)) with
    (_ <-- modify (fun st => set_cur st p) ;;; (_ <-- msg_body (walk cf f) p body ;;; ret VUndef)).
  unfold walk_body_b.
  apply mrel_bind; [apply mrel_set_cur|]. intros _. apply mrel_bind; [|intros _; apply mrel_ret].
  apply (msg true (walk cf f) (walk cf (pred f)) (walk_b cf plural_index bd f)); try assumption.
  - intros n Hn. eapply mrel_trans; [apply (walk_mono_le (pred f) f (Nat.le_pred_l f) n Hn) | apply IH, Hn].
  - intros q t. destruct f; [apply mrel_fuel | apply (walk_raw true)].
  - intros q t. destruct (pred f); [apply mrel_fuel | apply (walk_raw true)].
  - intros b1 b2. apply (walk_pos cf ident_ok ident_ok_0 Hreg f).
  - intros b1 b2. apply (walk_pos cf ident_ok ident_ok_0 Hreg (pred f)).
  - intros mp b Hokb. destruct f as [|f']; [apply mrel_fuel | apply (walk_syn true), Hokb].
Qed.

Theorem cat_refines_nocat f : forall n, okP n -> mrel (walk_b cf plural_index bd f n) (walk cf (2 * f + 1) n).
Proof.
  induction f as [|f IH]; intros n Hn; [apply mrel_fuel|].
  replace (2 * S f + 1)%nat with (S (S (2 * f + 1))) by lia.
  set (g := (2 * f + 1)%nat) in *.
  assert (forall k, okP k -> mrel (walk_b cf plural_index bd f k) (walk cf (S g) k)) as Hw.
  { intros k Hk. eapply mrel_trans; [apply IH, Hk | apply walk_mono, Hk]. }
  cbn [walk_b]. change (walk cf (S (S g)) n) with (walk_body cf (walk cf (S g)) n).
  destruct n; try (apply (walk_body_rel cf ident_ok ident_ok_0 Hreg _ _ Hw _ Hn)).
  cbn [InterpRelProofs.okP] in Hn. destruct Hn as [Hid Hb]. apply okP_all in Hb.
  change (walk_body cf (walk cf (S g)) (NMsg p id meaning desc body)) with
    (_ <-- modify (fun st => set_cur st p) ;;; (_ <-- msg_body (walk cf (S g)) p body ;;; ret VUndef)).
  unfold walk_body_b.
  apply mrel_bind; [apply mrel_set_cur|]. intros _. apply mrel_bind; [|intros _; apply mrel_ret].
  apply (msg false (walk cf (S g)) (walk cf g) (walk_b cf plural_index bd f)); try assumption.
  - apply (walk_raw false).
  - unfold g. replace (2 * f + 1)%nat with (S (2 * f)) by lia. apply (walk_raw false).
  - intros b1 b2. apply (walk_pos cf ident_ok ident_ok_0 Hreg (S g)).
  - intros b1 b2. apply (walk_pos cf ident_ok ident_ok_0 Hreg g).
  - intros mp b Hokb. apply (walk_syn false), Hokb.
Qed.

Lemma find_template_okP name t : find_template (r_templates (c_reg cf)) name = Some t -> okP (t_node t).
Proof.
  intros E. induction (r_templates (c_reg cf)) as [|x r IH]; cbn [find_template] in E; [discriminate|].
  inversion Hreg; subst. destruct (bstr_eqb (t_name x) name); [injection E as <-; assumption | auto].
Qed.

Lemma init_state_equiv c m name fid : st_equiv (init_state c m name None None fid) (init_state c m name None None fid).
Proof. unfold st_equiv, init_state. cbn. repeat split; auto. Qed.

(* [render] and [render_b] differ in the walker only: both are [render_via] of theirs *)
Definition finish (name : bstr) (x : outcome value * mstate) : render_result :=
  let '(r, st) := x in
  let mk o file line := {| rr_outcome := o; rr_writes := rev (out st); rr_file := file; rr_line := line;
                           rr_unbound := unbound st; rr_shared_writes := shared_writes st |} in
  match r with
  | Ok _ => mk (Ok tt) [] 0
  | Err m =>
      match assoc_s name (r_sources (c_reg cf)), assoc_s name (r_files (c_reg cf)) with
      | Some src, Some file =>
          match line_number src (cur st) with
          | Some l => mk (Err m) file l
          | None => mk (Crash e_index) [] 0
          end
      | _, _ => mk (Err m) [] 0
      end
  | Crash m => mk (Crash m) [] 0
  | Diverge => mk Diverge [] 0
  | OutOfFuel => mk OutOfFuel [] 0
  | OutOfModel => mk OutOfModel [] 0
  end.
Definition render_via (run : node -> M value) (name : bstr) (did : N) (data : list (bstr * value)) (fid : N) : render_result :=
  match find_template (r_templates (c_reg cf)) name with
  | None => {| rr_outcome := Err e_notemplate; rr_writes := []; rr_file := []; rr_line := 0; rr_unbound := 0; rr_shared_writes := [] |}
  | Some t => finish name (run (t_node t) (init_state (sc_enter (new_scope did data)) (entry_mode (t_ns_autoescape t)) name None None fid))
  end.

Lemma render_via_agrees run1 run2 name did data fid : (forall n, okP n -> mrel (run1 n) (run2 n)) ->
  rr_outcome (render_via run1 name did data fid) <> OutOfFuel ->
  is_ok (rr_outcome (render_via run2 name did data fid)) = is_ok (rr_outcome (render_via run1 name did data fid)) /\
  concat_b (rr_writes (render_via run2 name did data fid)) = concat_b (rr_writes (render_via run1 name did data fid)).
Proof.
  intros Hrun. unfold render_via. destruct (find_template (r_templates (c_reg cf)) name) as [t|] eqn:E; [|cbn; auto].
  pose proof (Hrun (t_node t) (find_template_okP name t E) _ _
                (init_state_equiv (sc_enter (new_scope did data)) (entry_mode (t_ns_autoescape t)) name fid)) as H.
  unfold res_rel in H. destruct (run1 (t_node t) _) as [r1 s1]. destruct (run2 (t_node t) _) as [r2 s2].
  cbn [fst snd finish] in *. intros Ho.
  destruct H as [-> | [<- Hs]]; [cbn in Ho; congruence|].
  assert (chunks (out s2) = chunks (out s1)) as Hc by (unfold st_equiv in Hs; decompose [and] Hs; symmetry; assumption).
  destruct r1; cbn [rr_outcome rr_writes is_ok] in *; try (split; [reflexivity | exact Hc]).
  destruct (assoc_s name (r_sources (c_reg cf))), (assoc_s name (r_files (c_reg cf)));
    try (destruct (line_number _ (cur s1)), (line_number _ (cur s2))); cbn; split; try reflexivity; exact Hc.
Qed.

Lemma is_ok_tt (o : outcome unit) : is_ok o = true -> o = Ok tt.
Proof. destruct o as [[]| | | | |]; [reflexivity|discriminate..]. Qed.

Theorem render_error_agrees f name did data fid :
  rr_outcome (render cf f name did data None None fid) <> OutOfFuel ->
  is_ok (rr_outcome (render_b cf plural_index bd f name did data None None fid)) =
  is_ok (rr_outcome (render cf f name did data None None fid)) /\
  concat_b (rr_writes (render_b cf plural_index bd f name did data None None fid)) =
  concat_b (rr_writes (render cf f name did data None None fid)).
Proof. exact (render_via_agrees (walk cf f) (walk_b cf plural_index bd f) name did data fid (nocat_refines_cat f)). Qed.

Theorem render_nocat_to_cat f name did data fid :
  rr_outcome (render cf f name did data None None fid) = Ok tt ->
  rr_outcome (render_b cf plural_index bd f name did data None None fid) = Ok tt /\
  concat_b (rr_writes (render_b cf plural_index bd f name did data None None fid)) =
  concat_b (rr_writes (render cf f name did data None None fid)).
Proof.
  intros Ho. destruct (render_error_agrees f name did data fid) as [Hi Hw]; [rewrite Ho; discriminate|].
  rewrite Ho in Hi. split; [apply is_ok_tt, Hi | exact Hw].
Qed.

Theorem render_cat_to_nocat f name did data fid :
  rr_outcome (render_b cf plural_index bd f name did data None None fid) = Ok tt ->
  rr_outcome (render cf (2 * f + 1) name did data None None fid) = Ok tt /\
  concat_b (rr_writes (render cf (2 * f + 1) name did data None None fid)) =
  concat_b (rr_writes (render_b cf plural_index bd f name did data None None fid)).
Proof.
  intros Ho.
  destruct (render_via_agrees (walk_b cf plural_index bd f) (walk cf (2 * f + 1)) name did data fid (cat_refines_nocat f)) as [Hi Hw];
    [change (rr_outcome (render_b cf plural_index bd f name did data None None fid) <> OutOfFuel); rewrite Ho; discriminate|].
  change (render_via (walk_b cf plural_index bd f) name did data fid) with (render_b cf plural_index bd f name did data None None fid) in Hi, Hw.
  rewrite Ho in Hi. split; [apply is_ok_tt, Hi | exact Hw].
Qed.

End Whole.

(* The placeholder nodes of a message carry the names that Model/MsgId.v
   (SetPlaceholdersAndID) gives them: [phs] lists, for every placeholder, its
   position, base name, String() text and node.  By C10 (names_distinct) equal
   names mean equal (base name, String()) pairs; if String() is injective up to
   positions on these nodes -- C17_print_injective's conclusion for print
   commands; for an HTML tag String() is its text; an explicit hypothesis here --
   equal names mean the same code. *)
From Soy Require Import Proofs.MsgIdProofs.

Definition ph_of (nm : namemap) (x : N * bstr * bstr * node) : node :=
  let '(p, base, str, n) := x in NMsgPlaceholder p (name_of nm base str) n.

Theorem coherent_of_naming order mbody es nm (phs : list (N * bstr * bstr * node)) :
  is_perm order -> msg_entries mbody = Ok es -> msg_names order mbody = Ok nm ->
  (forall p base str n, In (p, base, str, n) phs -> In (base, str) es) ->
  (forall p base str n p' base' str' n',
      In (p, base, str, n) phs -> In (p', base', str', n') phs -> str = str' -> pstrip n = pstrip n') ->
  coherent (map (ph_of nm) phs).
Proof.
  intros Hperm Hes Hnm Hin Hinj p1 p2 name b1 b2 H1 H2.
  apply in_map_iff in H1 as [[[[q1 base1] str1] n1] [E1 I1]].
  apply in_map_iff in H2 as [[[[q2 base2] str2] n2] [E2 I2]].
  cbn [ph_of] in E1, E2. injection E1 as _ En1 ->. injection E2 as _ En2 ->.
  assert ((base1, str1) = (base2, str2)) as Heq.
  { apply (names_distinct order mbody es nm Hperm Hes Hnm); [apply (Hin _ _ _ _ I1) | apply (Hin _ _ _ _ I2) | congruence]. }
  injection Heq as _ Hs. apply (Hinj _ _ _ _ _ _ _ _ I1 I2 Hs).
Qed.
