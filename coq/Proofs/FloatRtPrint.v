(* Float round trip, part 6: the printer's float text (ast FloatNode.String: strconv 'g' -1, with ".0"
   appended when the text has neither '.' nor 'e') reads back as the float printed.  With
   float_ok_iff_window, Spec/ExprSyntax.v's float_ok is the window condition alone. *)
From Soy Require Import Model.Bytes Model.Num Model.NumLit Model.AstPrint Spec.ExprSyntax Proofs.FloatRtText Proofs.FloatRtMain.
Open Scope N_scope.

Theorem fl_print_parse (f : fl) (s : bstr) :
  fl_finite_norm f -> fl_print f = Some s -> parse_float_round s = FRVal f.
Proof.
  intros Hn Hs. unfold fl_print in Hs. destruct (fl_to_string f) as [t|] eqn:Et; [|discriminate].
  injection Hs as <-. destruct (fl_to_string_parse f t Hn Et) as [A B]. unfold has_dot_or_e.
  destruct B as [[B _]|(B & C & _)]; rewrite B; [exact A|exact C].
Qed.

(* and it is a float text: digits, then a fraction or an exponent *)
Theorem fl_print_shape (f : fl) (s : bstr) :
  fl_finite_norm f -> fl_print f = Some s -> rt_shape s.
Proof.
  intros Hn Hs. unfold fl_print in Hs. destruct (fl_to_string f) as [t|] eqn:Et; [|discriminate].
  injection Hs as <-. destruct (fl_to_string_parse f t Hn Et) as [A B]. unfold has_dot_or_e.
  destruct B as [[B C]|(B & _ & C)]; rewrite B; exact C.
Qed.

(* the printer model prints every float of the model, and no other finite float in normal form *)
Theorem fl_print_total (f : fl) : fl_in_window f -> exists s, fl_print f = Some s.
Proof. intros H. destruct (fl_to_string_total f H) as (t & Et). unfold fl_print. rewrite Et. eexists. reflexivity. Qed.

(* so the float clause of wf_expr / syntax_ok is a condition on the shape of the value alone *)
Theorem float_ok_iff_window (f : fl) : float_ok f <-> fl_in_window f.
Proof.
  unfold float_ok. split.
  - intros (Hn & s & Hs). unfold fl_print in Hs. destruct (fl_to_string f) as [t|] eqn:Et; [|discriminate].
    exact (fl_to_string_window f t Hn Et).
  - intros H. split; [apply rt_window_norm; exact H|apply fl_print_total; exact H].
Qed.

Corollary fl_print_roundtrip (f : fl) : fl_in_window f -> exists s, fl_print f = Some s /\ parse_float_round s = FRVal f.
Proof.
  intros H. destruct (fl_print_total f H) as (s & Hs). exists s. split; [exact Hs|].
  exact (fl_print_parse f s (rt_window_norm f H) Hs).
Qed.
