(* C02, parser shape, part 2: what the command parser (Model/Parser.v) guarantees of
   EVERY tree it returns, for every token stream, parser state and budget:

   * [pwf]: the tree has the parser's shape -- expression positions hold expressions
     (Spec/Cmd.v [wf KExpr], through ScopeExprWf), the bodies of if / for / switch cases /
     let / param / log / template are blocks, the conditions of an if are IfCond nodes,
     the cases of a switch are SwitchCase nodes, the params of a call are param nodes,
     the children of a msg are raw text, placeholders and plurals.  [pwf] is LAXER than
     Spec/Cmd.v's [wf] in exactly three ways (ScopeParseWf.v closes the gap): an item of a
     block may also be a file-level tag ({namespace}, {template}, a soydoc comment) or a
     {plural} that was not placeholderized; a placeholder may hold any item (also a let).
   * [calls_of] / [resolved_in]: every NCall below the root carries a written, non-empty
     name resolved (Spec/CallNames.v [resolves]) against a namespace and alias list that
     were in force between the start state and the final state of the parse: the
     namespace is written once (nle: empty, then fixed), the aliases only grow. *)
From Coq Require Import Lia.
From Soy Require Import Model.Bytes Model.Values Model.Outcome Model.Ast Model.Token Generated.Tables Model.RawText
  Model.Parser Spec.Cmd Spec.CallNames Proofs.ScopeNames Proofs.ScopeExprWf Proofs.CmdParserStripPlz.
Open Scope N_scope.

Inductive pshape := PBlock | PItem | PIfCond | PCase | PParam | PMsgItem | PPluralCase | PRawCase.

Definition oall (f : node -> bool) (o : option node) : bool := match o with Some x => f x | None => true end.

Fixpoint pwf (k : pshape) (n : node) {struct n} : bool :=
  match k, n with
  | PBlock, NList _ l => forallb (pwf PItem) l
  | PItem, (NRawText _ _ | NMsgHtmlTag _ _ | NDebugger _ | NHeaderParam _ _ _ _ _ | NNamespace _ _ _ | NSoyDoc _ _) => true
  | PItem, NPrint _ arg dirs => wf KExpr arg && forallb (wf KDirective) dirs
  | PItem, NCss _ e _ => oall (wf KExpr) e
  | PItem, NLetValue _ _ e => wf KExpr e
  | PItem, NLetContent _ _ body => pwf PBlock body
  | PItem, NLog _ body => pwf PBlock body
  | PItem, NIf _ conds => forallb (pwf PIfCond) conds
  | PItem, NFor _ _ lst body ie => wf KExpr lst && pwf PBlock body && match ie with Some x => pwf PBlock x | None => true end
  | PItem, NSwitch _ v cases => wf KExpr v && forallb (pwf PCase) cases
  | PItem, NCall _ _ _ dat params => oall (wf KExpr) dat && forallb (pwf PParam) params
  | PItem, NMsg _ _ _ _ body => forallb (pwf PMsgItem) body
  | PItem, NTemplate _ _ body _ _ => pwf PBlock body
  | PItem, NMsgPlural _ _ v cases dflt => wf KExpr v && forallb (pwf PRawCase) cases && forallb (pwf PItem) dflt
  | PRawCase, NMsgPluralCase _ _ body => forallb (pwf PItem) body
  | PIfCond, NIfCond _ c body => oall (wf KExpr) c && pwf PBlock body
  | PCase, NSwitchCase _ vs body => forallb (wf KExpr) vs && pwf PBlock body
  | PParam, NParamValue _ _ v => wf KExpr v
  | PParam, NParamContent _ _ c => pwf PBlock c
  | PMsgItem, NRawText _ _ => true
  | PMsgItem, NMsgPlaceholder _ _ ph => pwf PItem ph
  | PMsgItem, NMsgPlural _ _ v cases dflt => wf KExpr v && forallb (pwf PPluralCase) cases && forallb (pwf PMsgItem) dflt
  | PPluralCase, NMsgPluralCase _ _ body => forallb (pwf PMsgItem) body
  | _, _ => false
  end.

(* the names of the calls below a node (commands only: an expression holds no call) *)
Fixpoint calls_of (n : node) {struct n} : list bstr :=
  match n with
  | NList _ l => flat_map calls_of l
  | NLog _ body => calls_of body
  | NIf _ conds => flat_map calls_of conds
  | NIfCond _ _ body => calls_of body
  | NFor _ _ _ body ie => calls_of body ++ match ie with Some x => calls_of x | None => [] end
  | NSwitch _ _ cases => flat_map calls_of cases
  | NSwitchCase _ _ body => calls_of body
  | NCall _ name _ _ params => name :: flat_map calls_of params
  | NParamContent _ _ c => calls_of c
  | NLetContent _ _ body => calls_of body
  | NMsg _ _ _ _ body => flat_map calls_of body
  | NMsgPlaceholder _ _ body => calls_of body
  | NMsgPlural _ _ _ cases dflt => flat_map calls_of cases ++ flat_map calls_of dflt
  | NMsgPluralCase _ _ body => flat_map calls_of body
  | NTemplate _ _ body _ _ => calls_of body
  | _ => []
  end.

(* namespace and aliases: the part of the parser state a call name depends on *)

Definition stt := (bstr * list (bstr * bstr))%type.
Definition st (s : cst) : stt := (c_ns s, c_al s).
Definition al_ext (al al' : list (bstr * bstr)) : Prop := exists pre, al' = pre ++ al.
(* the namespace is written once (empty, then fixed); the aliases only grow *)
Definition nle (a c : stt) : Prop := (fst a = [] \/ fst c = fst a) /\ al_ext (snd a) (snd c).

Lemma nle_refl a : nle a a.
Proof. split; [right; reflexivity | exists []; reflexivity]. Qed.
Lemma nle_trans a c d : nle a c -> nle c d -> nle a d.
Proof.
  intros [H1 [p1 E1]] [H2 [p2 E2]]. split.
  - destruct H1 as [H1|H1]; [left; exact H1|]. destruct H2 as [H2|H2]; [left; congruence | right; congruence].
  - exists (p2 ++ p1). rewrite E2, E1, app_assoc. reflexivity.
Qed.
Lemma nle_eq a c : c = a -> nle a c.
Proof. intros ->. apply nle_refl. Qed.
Lemma same_names_st s s' : same_names s s' -> st s' = st s.
Proof. intros [H1 H2]. unfold st. rewrite H1, H2. reflexivity. Qed.

(* facts that stay true however the state develops *)
Definition up (hi : stt) (P : stt -> Prop) : Prop := forall hi', nle hi hi' -> P hi'.
Lemma up_step hi hi' P : nle hi hi' -> up hi P -> up hi' P.
Proof. intros H K h Hh. apply K. eapply nle_trans; eassumption. Qed.

(* [name] is a written name resolved against a state between [lo] and [hi] *)
Definition resolved_in (lo hi : stt) (name : bstr) : Prop :=
  exists mid written, nle lo mid /\ nle mid hi /\ written <> [] /\ resolves (fst mid) (snd mid) written name.

Definition calls_in (lo : stt) (l : list bstr) (hi : stt) : Prop := up hi (fun h => Forall (resolved_in lo h) l).

Lemma calls_in_nil lo hi : calls_in lo [] hi.
Proof. intros h _. constructor. Qed.
Lemma calls_in_app lo l1 l2 hi : calls_in lo l1 hi -> calls_in lo l2 hi -> calls_in lo (l1 ++ l2) hi.
Proof. intros H1 H2 h Hh. apply Forall_app. split; [apply H1 | apply H2]; exact Hh. Qed.
Lemma calls_in_step lo l hi hi' : nle hi hi' -> calls_in lo l hi -> calls_in lo l hi'.
Proof. apply up_step. Qed.

Definition post {A} (Q : A -> cst -> Prop) (r : cres A) : Prop :=
  match r with COk a s' => Q a s' | _ => True end.
(* the state moves up; [P] holds of the value and the final (namespace, aliases) *)
Definition stepr {A} (s : cst) (P : A -> stt -> Prop) (r : cres A) : Prop :=
  post (fun a s' => nle (st s) (st s') /\ P a (st s')) r.
Definition leaf {A} (s : cst) (r : cres A) : Prop := stepr s (fun _ _ => True) r.

Lemma stepr_bind {A B} s (P : A -> stt -> Prop) (Q : B -> stt -> Prop) (x : cres A) (f : A -> cst -> cres B) :
  stepr s P x ->
  (forall a s1, nle (st s) (st s1) -> P a (st s1) -> stepr s1 Q (f a s1)) ->
  stepr s Q (cbind x f).
Proof.
  destruct x as [a s1| | |]; cbn [cbind stepr post]; auto. intros [H1 H2] K. specialize (K a s1 H1 H2).
  destruct (f a s1) as [b0 s2| | |]; cbn [stepr post] in *; auto. destruct K as [K1 K2]. split; [|exact K2].
  eapply nle_trans; eassumption.
Qed.
Lemma stepr_weaken {A} s (P Q : A -> stt -> Prop) (r : cres A) :
  (forall a hi, nle (st s) hi -> P a hi -> Q a hi) -> stepr s P r -> stepr s Q r.
Proof. intros H. destruct r; cbn [stepr post]; auto. intros [H1 H2]. split; [exact H1 | apply H; assumption]. Qed.
Lemma stepr_ok {A} s (P : A -> stt -> Prop) a s' : st s' = st s -> P a (st s) -> stepr s P (COk a s').
Proof. intros E H. cbn [stepr post]. rewrite E. split; [apply nle_refl | exact H]. Qed.
Lemma stepr_same {A} s s' (Q : A -> stt -> Prop) (r : cres A) : st s' = st s -> stepr s' Q r -> stepr s Q r.
Proof. intros E. destruct r; cbn [stepr post]; auto. rewrite E. auto. Qed.
Lemma leaf_keeps {A} s (r : cres A) : keeps s r -> leaf s r.
Proof. destruct r; cbn; auto. intros H. split; [apply nle_eq, same_names_st, H | exact I]. Qed.
Lemma stepr_leaf {A} s (r : cres A) : leaf s r -> stepr s (fun _ _ => True) r.
Proof. exact (fun H => H). Qed.
Lemma stepr_never {A} s (P : A -> stt -> Prop) (r : cres A) : (forall a s', r <> COk a s') -> stepr s P r.
Proof. destruct r as [a s'| | |]; cbn; auto. intros H. exfalso. exact (H a s' eq_refl). Qed.

(* what a procedure that returns a node of shape [k] guarantees *)
Definition nodeP (k : pshape) (lo : stt) (n : node) (hi : stt) : Prop :=
  pwf k n = true /\ calls_in lo (calls_of n) hi.
Definition flatP (n : node) (_ : stt) : Prop := pwf PItem n = true /\ calls_of n = [].
Lemma flat_node lo n hi : flatP n hi -> nodeP PItem lo n hi.
Proof. intros [H1 H2]. split; [exact H1 | rewrite H2; apply calls_in_nil]. Qed.
Definition paramsP (lo : stt) (ps : list node) (hi : stt) : Prop :=
  forallb (pwf PParam) ps = true /\ calls_in lo (flat_map calls_of ps) hi.
(* a switch: the node is a SwitchNode whose cases are cases *)
Definition switchP (lo : stt) (n : node) (hi : stt) : Prop :=
  exists p v cs, n = NSwitch p v cs /\ wf KExpr v = true /\ forallb (pwf PCase) cs = true /\ calls_in lo (flat_map calls_of cs) hi.
Definition pluralP (lo : stt) (cd : list node * option (list node)) (hi : stt) : Prop :=
  forallb (pwf PRawCase) (fst cd) = true /\ calls_in lo (flat_map calls_of (fst cd)) hi /\
  match snd cd with Some d => forallb (pwf PItem) d = true /\ calls_in lo (flat_map calls_of d) hi | None => True end.
Definition optP (lo : stt) (o : option node) (hi : stt) : Prop :=
  match o with Some n => nodeP PItem lo n hi | None => True end.
Definition optBP (lo : stt) (o : option node) (hi : stt) : Prop :=
  match o with Some n => nodeP PBlock lo n hi | None => True end.

Lemma nodeP_step k lo n hi hi' : nle hi hi' -> nodeP k lo n hi -> nodeP k lo n hi'.
Proof. intros H [H1 H2]. split; [exact H1 | eapply calls_in_step; eassumption]. Qed.
Lemma paramsP_step lo n hi hi' : nle hi hi' -> paramsP lo n hi -> paramsP lo n hi'.
Proof. intros H [H1 H2]. split; [exact H1 | eapply calls_in_step; eassumption]. Qed.
Lemma switchP_step lo n hi hi' : nle hi hi' -> switchP lo n hi -> switchP lo n hi'.
Proof. intros H (p & v & cs & E & H1 & H2 & H3). exists p, v, cs. repeat split; try assumption. eapply calls_in_step; eassumption. Qed.
Lemma pluralP_step lo n hi hi' : nle hi hi' -> pluralP lo n hi -> pluralP lo n hi'.
Proof.
  intros H (H1 & H2 & H3). split; [exact H1|]. split; [eapply calls_in_step; eassumption|].
  destruct (snd n); [|exact I]. destruct H3 as [H3 H4]. split; [exact H3 | eapply calls_in_step; eassumption].
Qed.
Lemma optP_step lo n hi hi' : nle hi hi' -> optP lo n hi -> optP lo n hi'.
Proof. destruct n; [apply nodeP_step | auto]. Qed.
Lemma optBP_step lo n hi hi' : nle hi hi' -> optBP lo n hi -> optBP lo n hi'.
Proof. destruct n; [apply nodeP_step | auto]. Qed.

(* a step moves every fact about the old state to the new one *)
Ltac adv H :=
  repeat match goal with
  | K : calls_in _ _ (st ?s) |- _ =>
      match type of H with nle (st s) _ => apply (calls_in_step _ _ _ _ H) in K end
  | K : nodeP _ _ _ (st ?s) |- _ =>
      match type of H with nle (st s) _ => apply (nodeP_step _ _ _ _ _ H) in K end
  | K : paramsP _ _ (st ?s) |- _ =>
      match type of H with nle (st s) _ => apply (paramsP_step _ _ _ _ H) in K end
  | K : switchP _ _ (st ?s) |- _ =>
      match type of H with nle (st s) _ => apply (switchP_step _ _ _ _ H) in K end
  | K : pluralP _ _ (st ?s) |- _ =>
      match type of H with nle (st s) _ => apply (pluralP_step _ _ _ _ H) in K end
  | K : optP _ _ (st ?s) |- _ =>
      match type of H with nle (st s) _ => apply (optP_step _ _ _ _ H) in K end
  | K : optBP _ _ (st ?s) |- _ =>
      match type of H with nle (st s) _ => apply (optBP_step _ _ _ _ H) in K end
  | K : nle ?lo (st ?s) |- _ =>
      match type of H with nle (st s) _ =>
        lazymatch lo with st _ => fail | _ => apply (fun K' => nle_trans _ _ _ K' H) in K end
      end
  end.
(* [sb]: the bind rule [stepr_bind] -- first goal: the first procedure; in the continuation its result, the
   state it left and the progress of the input position (folded into the hypotheses by [adv]) are introduced *)
Ltac sb :=
  eapply stepr_bind;
  [ | let a := fresh "a" in let s1 := fresh "s" in let Hs := fresh "Hs" in let Ha := fresh "Ha" in
      intros a s1 Hs Ha; cbv beta in Ha; adv Hs; clear Hs ].

Lemma flat_map_snoc {A B} (f : A -> list B) l x : flat_map f (l ++ [x]) = flat_map f l ++ f x.
Proof. rewrite flat_map_app. cbn. rewrite app_nil_r. reflexivity. Qed.

Fixpoint psize (n : node) {struct n} : nat :=
  match n with
  | NMsgPlural _ _ _ cases dflt =>
      S (fold_right (fun x a => psize x + a)%nat 0%nat cases + fold_right (fun x a => psize x + a)%nat 0%nat dflt)
  | NMsgPluralCase _ _ body => S (fold_right (fun x a => psize x + a)%nat 0%nat body)
  | _ => 1%nat
  end.
Lemma psize_in x l : In x l -> (psize x <= fold_right (fun x a => psize x + a)%nat 0%nat l)%nat.
Proof. induction l as [|y r IH]; cbn [In fold_right]; [tauto|]. intros [->|H]; [lia|]. specialize (IH H). lia. Qed.

Lemma msg_raw_text_loop_ok f : forall pos txt,
  forallb (pwf PMsgItem) (msg_raw_text_loop f pos txt) = true /\ flat_map calls_of (msg_raw_text_loop f pos txt) = [].
Proof.
  induction f as [|f IH]; intros pos txt; cbn [msg_raw_text_loop]; [split; reflexivity|].
  destruct txt as [|c r]; [split; reflexivity|]. destruct (find_tag _ _) as [[st0 en]|]; [|split; reflexivity].
  destruct (IH (pos + N.of_nat st0 + N.of_nat (en - st0)) (drop en (c :: r))) as [H1 H2].
  destruct (0 <? st0)%nat; cbn [app forallb pwf flat_map calls_of]; rewrite H1, H2; split; reflexivity.
Qed.

Definition plz_good (n : node) : Prop :=
  forallb (pwf PMsgItem) (plz n) = true /\ flat_map calls_of (plz n) = calls_of n.

Lemma plz_children_good l : (forall x, In x l -> pwf PItem x = true -> plz_good x) -> forallb (pwf PItem) l = true ->
  forallb (pwf PMsgItem) (plz_children l) = true /\ flat_map calls_of (plz_children l) = flat_map calls_of l.
Proof.
  induction l as [|x r IH]; intros Hs Hf; [split; reflexivity|].
  cbn [forallb] in Hf. apply andb_true_iff in Hf as [Hx Hr].
  destruct (Hs x (or_introl eq_refl) Hx) as [A1 A2]. destruct (IH (fun y Hy => Hs y (or_intror Hy)) Hr) as [B1 B2].
  cbn [plz_children flat_map]. rewrite forallb_app, flat_map_app, A1, A2, B1, B2. split; reflexivity.
Qed.

Lemma plz_ok k : forall n, (psize n <= k)%nat -> pwf PItem n = true ->
  forallb (pwf PMsgItem) (plz n) = true /\ flat_map calls_of (plz n) = calls_of n.
Proof.
  induction k as [|k IH]; intros n Hk Hn; [destruct n; destruct (Nat.nle_succ_0 _ Hk)|].
  assert (Hl : forall l, (fold_right (fun x a => psize x + a) 0 l <= k)%nat -> forallb (pwf PItem) l = true ->
            forallb (pwf PMsgItem) (plz_children l) = true /\ flat_map calls_of (plz_children l) = flat_map calls_of l).
  { intros l Hs. apply plz_children_good. intros x Hx. apply IH. pose proof (psize_in x l Hx). lia. }
  destruct n; cbn [pwf] in Hn; try discriminate;
    try (cbn [plz forallb pwf flat_map calls_of pos_of]; rewrite ?Hn, ?app_nil_r; split; reflexivity).
  - apply msg_raw_text_loop_ok.
  - apply andb_true_iff in Hn as [Hn Hd]. apply andb_true_iff in Hn as [Hv Hc]. cbn [psize] in Hk.
    destruct (Hl default) as [D1 D2]; [lia | exact Hd |].
    assert (Hcs : forallb (pwf PPluralCase) (map plz_case cases) = true /\
                  flat_map calls_of (map plz_case cases) = flat_map calls_of cases).
    { assert (Hs : (fold_right (fun x a => psize x + a) 0 cases <= k)%nat) by lia. clear - Hl Hs Hc.
      induction cases as [|c r IHc]; [split; reflexivity|]. cbn [forallb fold_right] in Hc, Hs.
      apply andb_true_iff in Hc as [Hc0 Hr]. destruct IHc as [B1 B2]; [exact Hr | lia |].
      destruct c; cbn [pwf] in Hc0; try discriminate. cbn [psize] in Hs.
      destruct (Hl body) as [A1 A2]; [lia | exact Hc0 |].
      cbn [map plz_case forallb pwf flat_map calls_of]. rewrite A1, A2, B1, B2. split; reflexivity. }
    destruct Hcs as [C1 C2].
    rewrite plz_plural. cbn [forallb pwf flat_map calls_of]. rewrite Hv, C1, D1, C2, D2, app_nil_r. split; reflexivity.
Qed.

Lemma plz_children_ok l : forallb (pwf PItem) l = true ->
  forallb (pwf PMsgItem) (plz_children l) = true /\ flat_map calls_of (plz_children l) = flat_map calls_of l.
Proof. apply plz_children_good. intros x _. exact (plz_ok (psize x) x (le_n _)). Qed.

Section Shape.
Variable inlen : N.
Variable lexq : bstr -> list tok.
Variable unq : bstr -> option bstr.
Variable pexpr : nat -> N -> pst -> presult node.
Variable efuel : list tok -> nat.
(* the expression parser returns expressions (ScopeExprWf.parse_expr_wf for Model/ExprParser.v) *)
Hypothesis Hpexpr : forall f prec p n p', pexpr f prec p = POk n p' -> wf KExpr n = true.

Definition exprP (n : node) (_ : stt) : Prop := wf KExpr n = true.

Lemma leaf_next s : leaf s (c_next s). Proof. apply leaf_keeps, keeps_next. Qed.
Lemma leaf_peek s : leaf s (c_peek s). Proof. apply leaf_keeps, keeps_peek. Qed.
Lemma leaf_expect ty c s : leaf s (c_expect inlen ty c s). Proof. apply leaf_keeps, keeps_expect. Qed.
Lemma leaf_tail1 v s : leaf s (tail1 v s). Proof. apply leaf_keeps, keeps_tail1. Qed.
Lemma leaf_attrs f al acc s : leaf s (attrs_loop inlen unq f al acc s). Proof. apply leaf_keeps, keeps_attrs. Qed.
Lemma never_unexp {A} (P : A -> stt -> Prop) t c s s0 : stepr s P (@c_unexp inlen A t c s0).
Proof. apply stepr_never. intros a s'. apply unexp_not_ok. Qed.
Lemma never_errorf {A} (P : A -> stt -> Prop) c s s0 : stepr s P (@c_errorf inlen A c s0).
Proof. apply stepr_never. intros a s'. apply errorf_not_ok. Qed.

Lemma expr_lift f prec s : stepr s exprP (lift_expr inlen pexpr f prec s).
Proof.
  unfold lift_expr. destruct (pexpr f prec (c_p s)) eqn:E; try exact I.
  - apply stepr_ok; [reflexivity | exact (Hpexpr _ _ _ _ _ E)].
  - match goal with |- stepr _ _ (if ?c then _ else _) => destruct c end; exact I.
Qed.
Lemma expr_quoted str s : stepr s exprP (parse_quoted_expr inlen lexq pexpr efuel str s).
Proof.
  unfold parse_quoted_expr. destruct (3 <=? _)%nat; [exact I|].
  destruct (pexpr _ _ _) eqn:E; try exact I.
  - apply stepr_ok; [reflexivity | exact (Hpexpr _ _ _ _ _ E)].
  - match goal with |- stepr _ _ (if ?c then _ else _) => destruct c end; exact I.
Qed.

(* [lb]: [sb] whose first procedure is a leaf (next, peek, expect, ...); [nv]: a branch that only raises a parse
   error; [okk]: a procedure that returns here ([stepr_ok]), leaving the shape of the result to prove *)
Ltac lb := sb; [ first [ apply leaf_next | apply leaf_peek | apply leaf_expect | apply leaf_tail1 | apply leaf_attrs ] | ].
Ltac nv := first [ apply never_unexp | apply never_errorf | exact I ].
Ltac okk := apply stepr_ok; [ reflexivity | ].

Lemma keeps_dotted f : forall name s, keeps s (dotted_name f name s).
Proof.
  induction f as [|f IH]; intros name s; [exact I|]. cbn [dotted_name]. apply keeps_bind; [apply keeps_next|].
  intros t s1. destruct (tis _ _); [apply IH | split; reflexivity].
Qed.
Lemma keeps_autoescape attrs s : keeps s (parse_autoescape inlen attrs s).
Proof. unfold parse_autoescape. destruct (assoc_s _ _); [split; reflexivity | apply keeps_errorf]. Qed.

Lemma leaf_autoescape attrs s : leaf s (parse_autoescape inlen attrs s).
Proof. apply leaf_keeps, keeps_autoescape. Qed.
Lemma leaf_bool_attr attrs k d s : leaf s (bool_attr inlen attrs k d s).
Proof.
  unfold bool_attr. destruct (attr k attrs); [|okk; exact I].
  destruct (bstr_eqb _ _); [okk; exact I|]. destruct (bstr_eqb _ _); [okk; exact I | nv].
Qed.
Lemma leaf_next_non_comment f : forall s, leaf s (next_non_comment f s).
Proof. induction f as [|f IH]; intros s; [exact I|]. cbn [next_non_comment]. lb. destruct (tis _ _); [apply IH | okk; exact I]. Qed.
Lemma leaf_skip_comments f : forall t s, leaf s (skip_comments f t s).
Proof. induction f as [|f IH]; intros t s; [exact I|]. cbn [skip_comments]. destruct (tis _ _); [|okk; exact I]. lb. apply IH. Qed.
Lemma leaf_text_run f : forall txt s, leaf s (text_run f txt s).
Proof. induction f as [|f IH]; intros txt s; [exact I|]. cbn [text_run]. lb. destruct (tis _ _); [apply IH | okk; exact I]. Qed.
Lemma flat_soydoc f : forall pos ps s, stepr s flatP (soydoc_loop inlen f pos ps s).
Proof.
  induction f as [|f IH]; intros pos ps s; [exact I|]. cbn [soydoc_loop]. lb.
  destruct (tis _ _); [apply IH|]. destruct (_ || _); [lb; apply IH|].
  destruct (tis _ _); [okk; split; reflexivity | nv].
Qed.
Lemma leaf_dotted f : forall name s, leaf s (dotted_name f name s).
Proof. intros name s. apply leaf_keeps, keeps_dotted. Qed.

(* {alias}: the aliases grow by one binding *)
Lemma leaf_alias f s : leaf s (parse_alias inlen f s).
Proof.
  destruct (parse_alias inlen f s) as [[] s'| | |] eqn:E; try exact I.
  destruct (parse_alias_binds inlen f s s' E) as (first & segs & Hn & Ha).
  cbn [leaf stepr post]. split; [|exact I]. unfold nle, st. cbn [fst snd]. split; [right; exact Hn|].
  exists [(alias_key first segs, alias_target first segs)]. exact Ha.
Qed.

(* {namespace a.b ...}: accepted only while no namespace is set; the node and tree.namespace get the same name,
   the aliases stay *)
Lemma parse_namespace_inv f token s n s' : parse_namespace inlen unq f token s = COk n s' ->
  exists name ae, n = NNamespace (t_pos token) name ae /\ c_ns s' = name /\ c_ns s = [] /\ c_al s' = c_al s.
Proof.
  unfold parse_namespace. destruct (c_ns s) eqn:En; [|intros H; destruct (errorf_not_ok _ _ _ _ _ H)].
  intros E. apply cbind_ok in E as (id & s1 & E1 & E). apply cbind_ok in E as (name & s2 & E2 & E).
  apply cbind_ok in E as (attrs & s3 & E3 & E). apply cbind_ok in E as (ae & s4 & E4 & E).
  apply cbind_ok in E as (x & s5 & E5 & E). injection E as <- <-.
  pose proof (same_names_trans _ _ _ (keeps_ok _ _ _ _ (keeps_expect inlen _ _ s) E1) (keeps_ok _ _ _ _ (keeps_dotted f _ s1) E2)) as K.
  pose proof (same_names_trans _ _ _ K (keeps_ok _ _ _ _ (keeps_attrs inlen unq f _ _ s2) E3)) as K3.
  pose proof (same_names_trans _ _ _ K3 (keeps_ok _ _ _ _ (keeps_autoescape attrs s3) E4)) as K4.
  destruct (same_names_trans _ _ _ K4 (keeps_ok _ _ _ _ (keeps_expect inlen _ _ s4) E5)) as [_ Kal].
  exists name, ae. repeat split. exact Kal.
Qed.
Lemma flat_namespace f token s : stepr s flatP (parse_namespace inlen unq f token s).
Proof.
  destruct (parse_namespace inlen unq f token s) as [n s'| | |] eqn:E; try exact I.
  destruct (parse_namespace_inv f token s n s' E) as (name & ae & -> & Hn & En & Hal).
  cbn [stepr post]. split; [|split; reflexivity]. unfold nle, st. cbn [fst snd].
  split; [left; exact En | exists []; exact Hal].
Qed.

(* [brk]: split the shape hypotheses ([nodeP], [paramsP], [flatP], [exprP]) into their conjuncts; [bools]: rewrite
   a boolean well-formedness goal with the hypotheses [_ = true]; [callsg]: the goal about the calls collected
   ([calls_in]) over an appended child list; [snoc]: well-formedness of a child list extended by one ([forallb_snoc]);
   [here sx]: continue from the state [sx], whose tracked part [st] is the current one by computation
   ([stepr_same]); [sx] is then abstracted to a variable *)
Ltac brk := cbv beta in *; repeat match goal with
  | H : nodeP _ _ _ _ |- _ => destruct H as [? ?]
  | H : paramsP _ _ _ |- _ => destruct H as [? ?]
  | H : flatP _ _ |- _ => destruct H as [? ?]
  | H : exprP _ _ |- _ => unfold exprP in H
  end.
Ltac bools := cbv beta in *; cbn [pwf forallb snd fst]; repeat match goal with H : _ = true |- _ => rewrite H end; try reflexivity;
  cbn [oall]; repeat match goal with H : _ = true |- _ => rewrite H end; try reflexivity.
Ltac callsg := cbn [calls_of flat_map fst snd]; rewrite ?flat_map_snoc, ?app_nil_r; cbn [calls_of]; rewrite ?app_nil_r;
  repeat (apply calls_in_app); first [ assumption | apply calls_in_nil ].
Ltac snoc := cbv beta in *; apply forallb_snoc; [ assumption | bools ].
Ltac here sx :=
  match goal with |- stepr ?s0 _ _ =>
    let s1 := fresh "s" in let Hs := fresh "Hs" in
    apply (stepr_same s0 sx); [ reflexivity | ];
    assert (Hs : nle (st s0) (st sx)) by (apply nle_eq; reflexivity);
    set (s1 := sx) in *; clearbody s1; adv Hs; clear Hs
  end.

Section Level.
Variable pe : N -> cst -> cres node.
Variable w : list N -> cst -> cres node.
Variable lf : nat.
Hypothesis Hpe : forall prec s, stepr s exprP (pe prec s).
Hypothesis Hw : forall lo u s, nle lo (st s) -> stepr s (nodeP PBlock lo) (w u s).

(* [sbw]: [sb] whose first procedure is a recursive call (expression parser [pe] or block parser [w]) *)
Ltac sbw := sb; [ first [ apply Hpe | eapply Hw; eassumption ] | ].

Lemma args_directive f : forall args s, forallb (wf KExpr) args = true ->
  stepr s (fun a _ => forallb (wf KExpr) a = true) (directive_args pe f args s).
Proof.
  induction f as [|f IH]; intros args s Ha; [exact I|]. cbn [directive_args]. lb.
  destruct (_ || _); [|okk; exact Ha]. sbw. apply IH. apply forallb_snoc; assumption.
Qed.
Lemma flat_print_loop f : forall pos e ds s, wf KExpr e = true -> forallb (wf KDirective) ds = true ->
  stepr s flatP (cmd_print_loop inlen pe lf f pos e ds s).
Proof.
  induction f as [|f IH]; intros pos e ds s He Hd; [exact I|]. cbn [cmd_print_loop]. lb.
  destruct (tis _ _); [okk; split; [bools | reflexivity]|].
  destruct (tis _ _); [|nv]. lb. sb; [apply args_directive; reflexivity|].
  apply IH; [exact He|]. apply forallb_snoc; [exact Hd | cbn [wf]; assumption].
Qed.
Lemma flat_print token s : stepr s flatP (cmd_print inlen pe lf token s).
Proof. unfold cmd_print. sbw. apply flat_print_loop; [assumption | reflexivity]. Qed.

Lemma node_let lo token s : nle lo (st s) -> stepr s (nodeP PItem lo) (parse_let inlen unq pe w lf token s).
Proof.
  intros Hlo. unfold parse_let. lb. lb. destruct (tis _ _).
  - lb. sbw. lb. lb. okk. brk. split; [bools | callsg].
  - lb. lb. destruct (tis _ _); [|nv]. sbw. lb. lb. okk. brk. split; [bools | callsg].
Qed.

Lemma flat_css token s : stepr s flatP (parse_css inlen lexq pexpr efuel token s).
Proof.
  unfold parse_css. lb. lb. destruct (last_index_of _ _); [|okk; split; reflexivity].
  sb; [apply expr_quoted|]. okk. brk. split; [bools | reflexivity].
Qed.

Lemma leaf_orphan f : forall t s, leaf s (orphan_text inlen lf f t s).
Proof.
  induction f as [|f IH]; intros t s; [exact I|]. cbn [orphan_text]. destruct (tis _ _); [|okk; exact I].
  destruct (rawtext_run _ _ _) as [[|? ?]| | | | |]; try exact I; [|nv].
  sb; [apply leaf_next_non_comment | apply IH].
Qed.

Lemma params_attr_form lo rec ps initial key0 s :
  (forall ps' s', nle lo (st s') -> paramsP lo ps' (st s') -> stepr s' (paramsP lo) (rec ps' s')) ->
  nle lo (st s) -> paramsP lo ps (st s) ->
  stepr s (paramsP lo) (param_attr_form inlen lexq unq pexpr efuel w lf rec ps initial key0 s).
Proof.
  intros Hrec Hlo HP. unfold param_attr_form. lb.
  sb; [instantiate (1 := fun _ _ => True); destruct key0; [destruct (attr _ _); [okk; exact I | nv] | okk; exact I]|].
  destruct (attr k_value _).
  - sb; [apply expr_quoted|]. lb. apply Hrec; [exact Hlo|]. brk. split; [snoc | callsg].
  - lb. sbw. lb. apply Hrec; [exact Hlo|]. brk. split; [snoc | callsg].
Qed.

Lemma params_loop lo f : forall ps s, nle lo (st s) -> paramsP lo ps (st s) ->
  stepr s (paramsP lo) (call_params_loop inlen lexq unq pexpr efuel pe w lf f ps s).
Proof.
  induction f as [|f IH]; intros ps s Hlo HP; [exact I|]. cbn [call_params_loop].
  sb; [apply leaf_next_non_comment|]. sb; [apply leaf_orphan|].
  destruct (negb _); [nv|]. lb. destruct (tis _ _); [okk; exact HP|]. destruct (negb _); [nv|].
  lb. lb.
  destruct (tis _ _).
  { sbw. lb. apply IH; [exact Hlo|]. brk. split; [snoc | callsg]. }
  destruct (tis _ _).
  { sbw. lb. apply IH; [exact Hlo|]. brk. split; [snoc | callsg]. }
  destruct (tis _ _).
  { here (c_backup s4). apply params_attr_form; [intros; apply IH; assumption | exact Hlo | exact HP]. }
  destruct (tis _ _); [|nv].
  here (c_backup2 s4 a2). apply params_attr_form; [intros; apply IH; assumption | exact Hlo | exact HP].
Qed.

(* {call}: the node's name is a written name resolved against the state in force at the call *)
Lemma node_call lo token s : nle lo (st s) -> stepr s (nodeP PItem lo) (parse_call inlen lexq unq pexpr efuel pe w lf token s).
Proof.
  intros Hlo. unfold parse_call. sb; [apply leaf_keeps, keeps_call_name|]. lb.
  destruct (match a with [] => attr_or_empty k_name a0 | _ :: _ => a end) as [|c0 r0] eqn:En; [nv|].
  assert (Hres : calls_in lo [resolve_name s1 (c0 :: r0)] (st s1)).
  { intros h Hh. constructor; [|constructor]. exists (st s1), (c0 :: r0).
    split; [exact Hlo|]. split; [exact Hh|]. split; [discriminate|]. apply resolve_name_spec. }
  sb.
  { instantiate (1 := fun ad _ => oall (wf KExpr) (snd ad) = true).
    destruct (attr k_data _); [|okk; reflexivity]. destruct (bstr_eqb _ _); [okk; reflexivity|].
    sb; [apply expr_quoted|]. okk. assumption. }
  lb. destruct (tis _ _).
  { okk. split; [bools | cbn [calls_of flat_map]; exact Hres]. }
  destruct (tis _ _); [|nv].
  sb; [apply (params_loop lo); [exact Hlo | split; [reflexivity | apply calls_in_nil]]|].
  lb. lb. lb. okk. brk. split; [bools|].
  cbn [calls_of]. apply (calls_in_app lo [_]); assumption.
Qed.

Lemma node_case lo f : forall token vs s, nle lo (st s) -> forallb (wf KExpr) vs = true ->
  stepr s (nodeP PCase lo) (case_loop inlen pe w f token vs s).
Proof.
  induction f as [|f IH]; intros token vs s Hlo Hv; [exact I|]. cbn [case_loop].
  sb.
  { instantiate (1 := fun v1 _ => forallb (wf KExpr) v1 = true).
    destruct (tis _ _); [okk; exact Hv|]. sbw. okk. apply forallb_snoc; assumption. }
  lb. destruct (tis _ _); [apply IH; assumption|]. destruct (tis _ _); [|nv].
  sbw. okk. brk. split; [bools | callsg].
Qed.

Lemma switch_node lo n hi : switchP lo n hi -> nodeP PItem lo n hi.
Proof. intros (p & v & cs & -> & Hv & Hc & Hk). split; [bools | exact Hk]. Qed.

Lemma sw_loop lo f : forall pos endt v cs s, nle lo (st s) -> wf KExpr v = true ->
  forallb (pwf PCase) cs = true -> calls_in lo (flat_map calls_of cs) (st s) ->
  stepr s (switchP lo) (switch_loop inlen pe w lf f pos endt v cs s).
Proof.
  induction f as [|f IH]; intros pos endt v cs s Hlo Hv Hc Hk; [exact I|]. cbn [switch_loop]. lb.
  destruct (tis _ _); [apply IH; assumption|].
  destruct (tis _ _); [destruct (all_space _); [apply IH; assumption | nv]|].
  destruct (_ || _).
  { destruct (last_is_default _); [nv|]. sb; [apply (node_case lo); [exact Hlo | reflexivity]|].
    brk. apply IH; [exact Hlo | exact Hv | apply forallb_snoc; assumption | callsg]. }
  destruct (tis _ _); [lb; okk; exists pos, v, cs; repeat split; assumption|].
  destruct (tis _ _); [apply IH; assumption | nv].
Qed.
Lemma sw_parse lo token endt s : nle lo (st s) -> stepr s (switchP lo) (parse_switch inlen pe w lf token endt s).
Proof.
  intros Hlo. unfold parse_switch. sbw. lb.
  apply sw_loop; [exact Hlo | assumption | reflexivity | apply calls_in_nil].
Qed.

Lemma plural_cases_ok lo cs : forall cases d s, forallb (pwf PCase) cs = true -> calls_in lo (flat_map calls_of cs) (st s) ->
  pluralP lo (cases, d) (st s) -> stepr s (pluralP lo) (plural_cases inlen cs cases d s).
Proof.
  induction cs as [|c cs IH]; intros cases d s Hc Hk HP; cbn [plural_cases]; [okk; exact HP|].
  cbn [forallb] in Hc. apply andb_true_iff in Hc as [Hc0 Hcs].
  cbn [flat_map] in Hk.
  assert (Hk0 : calls_in lo (calls_of c) (st s)) by (intros h Hh; exact (proj1 (proj1 (Forall_app _ _ _) (Hk h Hh)))).
  assert (Hk1 : calls_in lo (flat_map calls_of cs) (st s)) by (intros h Hh; exact (proj2 (proj1 (Forall_app _ _ _) (Hk h Hh)))).
  destruct c; cbn [pwf] in Hc0; try discriminate.
  apply andb_true_iff in Hc0 as [Hvs Hb].
  match type of Hb with pwf PBlock ?bd = true => destruct bd; cbn [pwf] in Hb; try discriminate end. cbn [calls_of] in Hk0.
  destruct HP as (Q1 & Q2 & Q3). cbn [fst snd] in *.
  destruct values as [|v0 vr].
  { apply IH; [exact Hcs | exact Hk1|]. cbn [children_of]. split; [exact Q1|]. split; [exact Q2|]. cbn [snd]. split; assumption. }
  destruct v0; try nv. destruct vr; [|nv].
  apply IH; [exact Hcs | exact Hk1|]. cbn [children_of]. split; cbn [fst snd].
  - apply forallb_snoc; [exact Q1 | exact Hb].
  - split; [|exact Q3]. rewrite flat_map_snoc. cbn [calls_of]. apply calls_in_app; assumption.
Qed.

Lemma node_plural lo tok s : nle lo (st s) -> stepr s (nodeP PItem lo) (parse_plural inlen pe w lf tok s).
Proof.
  intros Hlo. unfold parse_plural. destruct (negb _); [nv|]. sb; [apply (sw_parse lo); exact Hlo|].
  destruct Ha as (p & v & cs & -> & Hv & Hc & Hk).
  sb; [apply (plural_cases_ok lo); [exact Hc | exact Hk | split; [reflexivity | split; [apply calls_in_nil | exact I]]]|].
  destruct Ha as (Q1 & Q2 & Q3). destruct (snd a) as [d|]; [|nv]. destruct Q3 as [Q3 Q4]. okk. split; [bools | callsg].
Qed.

Lemma node_for lo token s : nle lo (st s) -> stepr s (nodeP PItem lo) (parse_for inlen pe w token s).
Proof.
  intros Hlo. unfold parse_for. lb. lb. destruct (negb _); [nv|].
  sbw. lb. sbw.
  here (c_backup s4). lb.
  sb.
  { instantiate (1 := optBP lo).
    destruct (tis _ _); [|okk; exact I]. lb. sbw. okk. assumption. }
  lb. lb. okk. brk.
  match goal with H : optBP _ ?o _ |- _ => destruct o as [ie|]; cbn [optBP] in H end; brk; (split; [bools | callsg]).
Qed.

Lemma node_if lo f : forall pos cs e s, nle lo (st s) -> forallb (pwf PIfCond) cs = true ->
  calls_in lo (flat_map calls_of cs) (st s) -> stepr s (nodeP PItem lo) (if_loop inlen pe w f pos cs e s).
Proof.
  induction f as [|f IH]; intros pos cs e s Hlo Hc Hk; [exact I|]. cbn [if_loop].
  sb.
  { instantiate (1 := fun c _ => oall (wf KExpr) c = true).
    destruct e; [okk; reflexivity|]. sbw. okk. assumption. }
  lb. sbw. brk.
  match goal with |- stepr _ _ (cbind (c_next (c_backup ?sx)) _) => here (c_backup sx) end. lb.
  match goal with |- stepr ?sc _ ?g => match g with context [cs ++ [?c]] =>
    assert (Hc' : forallb (pwf PIfCond) (cs ++ [c]) = true) by snoc;
    assert (Hk' : calls_in lo (flat_map calls_of (cs ++ [c])) (st sc)) by callsg end end.
  destruct (tis _ _); [apply IH; assumption|]. destruct (tis _ _); [apply IH; assumption|].
  destruct (tis _ _); [lb; okk; split; [cbn [pwf]; exact Hc' | cbn [calls_of]; assumption] | apply IH; assumption].
Qed.

Lemma node_msg lo token s : nle lo (st s) -> stepr s (nodeP PItem lo) (parse_msg inlen unq w lf token s).
Proof.
  intros Hlo. unfold parse_msg. lb. destruct (attr k_desc _); [|nv]. lb.
  match goal with |- stepr _ _ (cbind (w _ ?sx) _) => here sx end.
  sbw. cbv zeta.
  match goal with |- context [set_inmsg ?sx false] => here (set_inmsg sx false) end.
  brk.
  destruct (_ && _); [nv|]. lb. okk.
  match goal with H : pwf PBlock ?n = true |- _ => destruct n; cbn [pwf] in H; try discriminate end.
  cbn [children_of calls_of] in *.
  match goal with H : forallb (pwf PItem) ?l = true |- _ => destruct (plz_children_ok l H) as [C1 C2] end.
  split; [cbn [pwf]; exact C1 | cbn [calls_of]; rewrite C2; assumption].
Qed.

Lemma node_template lo token s : nle lo (st s) -> stepr s (nodeP PItem lo) (parse_template inlen unq w lf token s).
Proof.
  intros Hlo. unfold parse_template. lb. lb. sb; [apply leaf_autoescape|]. sb; [apply leaf_bool_attr|]. lb.
  sbw. cbv zeta. lb. okk. brk. split; [bools | callsg].
Qed.

Lemma flat_header_param token s : stepr s flatP (parse_header_param inlen pe token s).
Proof.
  unfold parse_header_param. lb. lb. lb. lb.
  sb; [instantiate (1 := fun _ _ => True); destruct (tis _ _); [sb; [apply Hpe|]; okk; exact I | okk; exact I]|].
  lb. okk. split; reflexivity.
Qed.

Lemma opt_some lo s (r : cres node) : stepr s (nodeP PItem lo) r -> stepr s (optP lo) (cbind r (fun n s' => COk (Some n) s')).
Proof. intros H. eapply stepr_bind; [exact H|]. intros n s1 _ Hn. okk. exact Hn. Qed.
Lemma opt_flat lo s (r : cres node) : stepr s flatP r -> stepr s (optP lo) (cbind r (fun n s' => COk (Some n) s')).
Proof. intros H. apply opt_some. eapply stepr_weaken; [|exact H]. intros n hi _. apply flat_node. Qed.

Lemma opt_begin_tag lo s : nle lo (st s) -> stepr s (optP lo) (begin_tag inlen lexq unq pexpr efuel pe w lf s).
Proof.
  intros Hlo. unfold begin_tag. lb. rename a into token.
  destruct (tis token pit_Namespace); [apply opt_flat, flat_namespace|].
  destruct (tis token pit_Template); [apply opt_some, node_template; exact Hlo|].
  destruct (_ || _); [apply opt_flat, flat_header_param|].
  destruct (tis token pit_If); [unfold notmsg; destruct (c_inmsg _); [nv | apply opt_some, node_if; [exact Hlo | reflexivity | apply calls_in_nil]]|].
  destruct (tis token pit_Msg); [unfold notmsg; destruct (c_inmsg _); [nv | apply opt_some, node_msg; exact Hlo]|].
  destruct (tis token pit_Plural); [apply opt_some, node_plural; exact Hlo|].
  destruct (_ || _); [unfold notmsg; destruct (c_inmsg _); [nv | apply opt_some, node_for; exact Hlo]|].
  destruct (tis token pit_Switch).
  { unfold notmsg; destruct (c_inmsg _); [nv|]. apply opt_some. eapply stepr_weaken; [|apply (sw_parse lo); exact Hlo].
    intros n hi _. apply switch_node. }
  destruct (tis token pit_Call); [apply opt_some, node_call; exact Hlo|].
  destruct (tis token pit_Literal).
  { lb. lb. lb. lb. lb. okk. apply flat_node. split; reflexivity. }
  destruct (tis token pit_Css); [apply opt_flat, flat_css|].
  destruct (tis token pit_Log).
  { lb. sbw. lb. okk. brk. split; [bools | callsg]. }
  destruct (tis token pit_Debugger); [lb; okk; apply flat_node; split; reflexivity|].
  destruct (tis token pit_Let); [apply opt_some, node_let; exact Hlo|].
  destruct (tis token pit_Alias); [sb; [apply leaf_alias|]; okk; exact I|].
  destruct (assoc _ _); [lb; okk; apply flat_node; split; reflexivity|].
  destruct (one_of _ _).
  { apply opt_some. eapply stepr_weaken; [intros n hi _; apply flat_node|].
    match goal with |- stepr _ _ (cmd_print _ _ _ _ ?sx) => here sx end. apply flat_print. }
  destruct (tis token pit_Print); [apply opt_flat, flat_print | nv].
Qed.

Lemma opt_text_or_tag lo t0 until s : nle lo (st s) ->
  stepr s (fun r hi => optP lo (fst r) hi) (text_or_tag inlen lexq unq pexpr efuel pe w lf t0 until s).
Proof.
  intros Hlo. unfold text_or_tag. sb; [apply leaf_skip_comments|]. destruct (one_of _ _); [okk; exact I|].
  lb. destruct (_ && _); [okk; exact I|]. cbv zeta.
  destruct (tis _ _).
  { match goal with |- stepr _ _ (cbind (text_run _ _ ?sx) _) => here sx end.
    sb; [apply leaf_text_run|]. destruct (rawtext_run _ _ _) as [[|? ?]| | | | |]; try exact I; okk; [exact I|].
    apply flat_node. split; reflexivity. }
  destruct (tis _ _).
  { match goal with |- stepr _ _ (cbind (begin_tag _ _ _ _ _ _ _ _ ?sx) _) => here sx end.
    sb; [apply opt_begin_tag; exact Hlo|]. okk. assumption. }
  destruct (tis _ _); [|nv].
  match goal with |- stepr _ _ (cbind (soydoc_loop _ _ _ _ ?sx) _) => here sx end.
  sb; [apply flat_soydoc|]. okk. apply flat_node. assumption.
Qed.

Lemma block_item_list_loop lo f : forall unt pos acc s, nle lo (st s) ->
  forallb (pwf PItem) acc = true -> calls_in lo (flat_map calls_of acc) (st s) ->
  stepr s (nodeP PBlock lo) (item_list_loop inlen lexq unq pexpr efuel pe w lf f unt pos acc s).
Proof.
  induction f as [|f IH]; intros unt pos acc s Hlo Hc Hk; [exact I|]. cbn [item_list_loop]. lb.
  sb; [apply opt_text_or_tag; exact Hlo|]. cbv zeta. cbv beta in *.
  destruct (snd a0); [okk; split; [cbn [pwf]; exact Hc | cbn [calls_of]; exact Hk]|].
  destruct (fst a0) as [n|]; [|apply IH; assumption].
  cbn [optP] in *. brk. apply IH; [exact Hlo | apply forallb_snoc; assumption | callsg].
Qed.
End Level.

(* itemList, for every budget: the tree is a block of the parser's shape and every call below it
   is resolved against a (namespace, aliases) between [lo] and the final state *)
Theorem item_list_shape fuel : forall lo unt s, nle lo (st s) ->
  stepr s (nodeP PBlock lo) (item_list inlen lexq unq pexpr efuel fuel unt s).
Proof.
  induction fuel as [|f IH]; intros lo unt s Hlo; [exact I|]. cbn [item_list].
  apply block_item_list_loop; [intros; apply expr_lift | intros; apply IH; assumption | exact Hlo | reflexivity | apply calls_in_nil].
Qed.
End Shape.
