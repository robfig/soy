(* The STRUCTURAL tie of Model/Interp.v to soyhtml/exec.go (part 2: the hand-written tables of
   Proofs/WalkTie.v are what [walk_body] does).

   [walk_body cf w n] is run on PROBE nodes: every child of [n] has a distinguishable position (its marker) and
   the recursive call [w] is [probe_w]: it appends a snapshot (the child's marker, s.node, the depth of the
   buffer stack, the autoescape mode, the call depth, and the keys / entered flag / origin of every frame of the
   scope) to the output log, moves s.node to the child as the real walk does, and returns the value the probe
   assigns to that marker.  So the final state holds, in order, every recursive call with the state it was made
   in, interleaved with the Write calls of the node itself.

   The same observation is computed from the EVENT LIST of the node type ([ev_X], proved equal to the list
   extracted from exec.go in WalkTie.v) by [run], an interpreter of the event vocabulary over the same machine
   state: s.walk / s.eval / s.evaldef / s.renderBlock / state.walk call the probe (through the model's own [eval],
   [evaldef], [render_block]), s.context.push/pop/set/lookup and the operations on callData act on the scope,
   the writes write, s.errorf fails; loops, ifs, short-circuit operands and switches consume the DECISIONS the
   probe lists (how often a loop runs, which branch is taken), because conditions are not part of the
   vocabulary.  One lemma per probe: the two observations are equal ([vm_compute]).  Dropping a pop, swapping
   two evaluations, adding a write or moving s.at in the hand table, or in [walk_node], breaks a probe. *)
From Coq Require Import List NArith ZArith String Bool.
From Soy Require Import Model.Bytes Model.Num Model.Values Model.Outcome Model.Ast
  Model.Escape Model.Directives Model.Print Generated.Tables Model.Interp Proofs.WalkTie.
Import ListNotations.
Open Scope N_scope.

(* ------------------------------------------------------------------ *)
(* the probe *)

Definition enc_frame (f : frame) : bstr :=
  254 :: (if f_entered f then 1 else 0) :: (match f_origin f with OExternal id => 1 + id | OFresh => 0 end)
      :: concat_b (map (fun kv : bstr * value => 253 :: fst kv) (f_vars f)).
Definition enc_ctx (c : scope) : bstr := concat_b (map enc_frame c).
Definition snap (m : N) (st : mstate) : bstr :=
  [255; m; cur st; N.of_nat (length (bufs st)); mode st; N.of_nat (depth_ st)] ++ enc_ctx (ctx st).

Definition results := list (N * outcome value).
Definition probe_call (res : results) (m : N) : M value := fun st =>
  let st1 := set_cur (set_out st (snap m st :: out st) (calls_left st) (bytes_left st)) m in
  (match assoc m res with Some o => o | None => Ok VUndef end, st1).
Definition probe_w (res : results) (n : node) : M value := probe_call res (pos_of n).

(* ------------------------------------------------------------------ *)
(* the interpreter of event lists *)

Inductive dec := DLoop (n : nat) | DIf (taken : bool) | DShort (evaluated : bool) | DCase (i : nat)
  | DFails (x : bool).    (* directive.Apply / fn.Apply panics (recovered into errorf) *)

Record penv := {
  pe_ref : list (bstr * list nat * N);       (* reference text, indices of the loops its `[]` stand for (innermost
                                                first) -> marker of that child *)
  pe_str : list (bstr * list nat * bstr);    (* string-valued references: node.Var, param.Key, node.Text ... *)
  pe_res : results;                          (* what the child with that marker returns *)
  pe_callee_mode : N;                        (* the autoescape mode of the callee's namespace (state.walk) *)
  pe_mode : N;                               (* the value assigned by s.autoescape = .. *)
}.

Record rst := {
  r_st : mstate;
  r_dec : list dec;
  r_status : N;            (* 0 running, 1 break, 2 continue, 3 return, 4 failed, 9 the probe's decisions do not fit *)
  r_class : N;             (* outcome class when failed *)
  r_cd : scope;            (* the local callData of evalCall *)
  r_last : value;          (* value of the last child *)
}.
Definition upd_st (s : rst) (st : mstate) : rst :=
  {| r_st := st; r_dec := r_dec s; r_status := r_status s; r_class := r_class s; r_cd := r_cd s; r_last := r_last s |}.
Definition upd_dec (s : rst) (d : list dec) : rst :=
  {| r_st := r_st s; r_dec := d; r_status := r_status s; r_class := r_class s; r_cd := r_cd s; r_last := r_last s |}.
Definition upd_status (s : rst) (x : N) : rst :=
  {| r_st := r_st s; r_dec := r_dec s; r_status := x; r_class := r_class s; r_cd := r_cd s; r_last := r_last s |}.
Definition upd_cd (s : rst) (c : scope) : rst :=
  {| r_st := r_st s; r_dec := r_dec s; r_status := r_status s; r_class := r_class s; r_cd := c; r_last := r_last s |}.
Definition failed (s : rst) (cls : N) : rst :=
  {| r_st := r_st s; r_dec := r_dec s; r_status := 4; r_class := cls; r_cd := r_cd s; r_last := r_last s |}.
Definition bad (s : rst) : rst := upd_status s 9.

Definition class_of {A} (o : outcome A) : N :=
  match o with Ok _ => 0 | Err _ => 1 | Crash _ => 2 | Diverge => 3 | OutOfFuel => 4 | OutOfModel => 5 end.

Definition runM (m : M value) (s : rst) : rst :=
  match m (r_st s) with
  | (Ok v, st') => {| r_st := st'; r_dec := r_dec s; r_status := r_status s; r_class := r_class s; r_cd := r_cd s; r_last := v |}
  | (o, st') => failed (upd_st s st') (class_of o)
  end.
Definition runU (m : M unit) (s : rst) : rst :=
  match m (r_st s) with
  | (Ok _, st') => upd_st s st'
  | (o, st') => failed (upd_st s st') (class_of o)
  end.

(* a reference names the element of a range by `[]` (node.Cases[].Values[]): it is resolved with as many
   indices of the enclosing loops, counted from the outermost, as it has `[]` *)
Fixpoint brackets (r : bstr) : nat :=
  match r with [] => O | c :: t => if N.eqb c 91 then S (brackets t) else brackets t end.
Definition ix_from (r : bstr) (ix : list nat) : list nat := skipn (length ix - brackets r) ix.
Fixpoint nats_eqb (x y : list nat) : bool :=
  match x, y with
  | [], [] => true
  | a :: x', c :: y' => Nat.eqb a c && nats_eqb x' y'
  | _, _ => false
  end.
Fixpoint assoc_ri {A} (r : bstr) (ix : list nat) (l : list (bstr * list nat * A)) : option A :=
  match l with
  | [] => None
  | (r', ix', v) :: t => if bstr_eqb r r' && nats_eqb ix ix' then Some v else assoc_ri r ix t
  end.
Definition marker (pe : penv) (ix : list nat) (r : bstr) : N :=
  match assoc_ri r (ix_from r ix) (pe_ref pe) with Some m => m | None => 250 end.
Fixpoint key_str (pe : penv) (ix : list nat) (k : wkey) : bstr :=
  match k with
  | EkRef r => match assoc_ri r (ix_from r ix) (pe_str pe) with Some s => s | None => [63] end
  | EkLit s => s
  | EkCat a c => key_str pe ix a ++ key_str pe ix c
  | EkOther _ => [63]
  end.

(* state.walk(calledTmpl.Node) on the new state of evalCall: scope = callData, autoescape = the callee's
   namespace's; the caller's are back afterwards *)
Definition sub_walk (res : results) (m mode' : N) (cd : scope) : M value := fun st =>
  let st2 := set_depth (set_mode (set_ctx st cd) mode') (S (depth_ st)) in
  match probe_call res m st2 with
  | (Ok _, st') => (Ok VUndef, set_depth (set_mode (set_ctx st' (ctx st)) (mode st)) (depth_ st))
  | (r, st') => (r, set_depth (set_mode (set_ctx st' (ctx st)) (mode st)) (depth_ st))
  end.

Definition fn_at := Eval vm_compute in b "s.at".
Definition fn_walk := Eval vm_compute in b "s.walk".
Definition fn_eval := Eval vm_compute in b "s.eval".
Definition fn_evaldef := Eval vm_compute in b "s.evaldef".
Definition fn_render := Eval vm_compute in b "s.renderBlock".
Definition fn_push := Eval vm_compute in b "s.context.push".
Definition fn_pop := Eval vm_compute in b "s.context.pop".
Definition fn_set := Eval vm_compute in b "s.context.set".
Definition fn_lookup := Eval vm_compute in b "s.context.lookup".
Definition fn_alldata := Eval vm_compute in b "s.context.alldata".
Definition fn_cdpush := Eval vm_compute in b "?.push".
Definition fn_cdset := Eval vm_compute in b "?.set".
Definition fn_cdenter := Eval vm_compute in b "?.enter".
Definition fn_newscope := Eval vm_compute in b "newScope".
Definition fn_subwalk := Eval vm_compute in b "?.walk".
Definition fn_write := Eval vm_compute in b "s.wr.Write".
Definition fn_writestring := Eval vm_compute in b "io.WriteString".
Definition fn_escwrite := Eval vm_compute in b "htmlEscapeString".
Definition fn_errorf := Eval vm_compute in b "s.errorf".
Definition fn_msgbody := Eval vm_compute in b "s.walkMsgBody".
Definition fn_dapply := Eval vm_compute in b "?.Apply".
Definition fn_fapply := Eval vm_compute in b "?.Apply".
Definition lhs_autoescape := Eval vm_compute in b "s.autoescape".

Definition child_node (m : N) : node := NNull m.

Definition do_call (pe : penv) (ix : list nat) (fn : bstr) (args : list wkey) (s : rst) : rst :=
  let res := pe_res pe in
  let w := probe_w res in
  if bstr_eqb fn fn_dapply || bstr_eqb fn fn_fapply then
    match r_dec s with
    | DFails x :: d => if x then failed (upd_dec s d) 1 else upd_dec s d
    | _ => bad s
    end
  else
  match args with
  | [EkRef r] =>
      let m := marker pe ix r in
      if bstr_eqb fn fn_at then upd_st s (set_cur (r_st s) m)
      else if bstr_eqb fn fn_walk then runM (w (child_node m)) s
      else if bstr_eqb fn fn_msgbody then runM (w (child_node m)) s
      else if bstr_eqb fn fn_eval then runM (eval w (child_node m)) s
      else if bstr_eqb fn fn_evaldef then runM (evaldef w (child_node m)) s
      else if bstr_eqb fn fn_render then runM (s0 <-- render_block w (child_node m) ;;; ret (VStr s0)) s
      else if bstr_eqb fn fn_subwalk then runM (sub_walk res m (pe_callee_mode pe) (r_cd s)) s
      else if bstr_eqb fn fn_write then runU (write (key_str pe ix (EkRef r))) s
      else if bstr_eqb fn fn_lookup then runM (m_lookup (key_str pe ix (EkRef r))) s
      else if bstr_eqb fn fn_newscope then
        upd_cd s (match r_last s with VMap id mp => new_scope id mp | _ => [] end)
      else s
  | [] =>
      if bstr_eqb fn fn_push then runU m_push s
      else if bstr_eqb fn fn_pop then runU m_pop s
      else if bstr_eqb fn fn_alldata then
        match sc_alldata (ctx (r_st s)) with Some c => upd_cd s c | None => failed s 1 end
      else if bstr_eqb fn fn_cdpush then upd_cd s (sc_push (r_cd s))
      else if bstr_eqb fn fn_cdenter then upd_cd s (sc_enter (r_cd s))
      else if bstr_eqb fn fn_errorf then failed s 1
      else s
  | [k1; k2] =>
      if bstr_eqb fn fn_set then runU (m_set (key_str pe ix k1) VNull) s
      else if bstr_eqb fn fn_cdset then upd_cd s (sc_set (r_cd s) (key_str pe ix k1) VNull)
      else if bstr_eqb fn fn_writestring then runU (write (key_str pe ix k2)) s
      else if bstr_eqb fn fn_escwrite then runU (write_all (esc_writes [] (key_str pe ix k2))) s
      else s
  | [EkOther _] =>
      if bstr_eqb fn fn_newscope then upd_cd s [fresh_frame] else s
  | _ => s
  end.

Fixpoint run (fuel : nat) (pe : penv) (ix : list nat) (evs : list wev) (s : rst) {struct fuel} : rst :=
  match fuel with
  | O => bad s
  | S f =>
      match evs with
      | [] => s
      | e :: rest =>
          if negb (r_status s =? 0) then s
          else
            let s1 :=
              match e with
              | EvCall fn args => do_call pe ix fn args s
              | EvAssign lhs => if bstr_eqb lhs lhs_autoescape then upd_st s (set_mode (r_st s) (pe_mode pe)) else s
              | EvLoop _ _ body =>
                  match r_dec s with
                  | DLoop n :: d =>
                      (fix iter (k i : nat) (s : rst) {struct k} : rst :=
                         match k with
                         | O => s
                         | S k' =>
                             let s' := run f pe (i :: ix) body s in
                             if (r_status s' =? 0) || (r_status s' =? 2) then iter k' (S i) (upd_status s' 0)
                             else if r_status s' =? 1 then upd_status s' 0
                             else s'
                         end) n O (upd_dec s d)
                  | _ => bad s
                  end
              | EvIf c t e2 =>
                  let s' := run f pe ix c s in
                  if negb (r_status s' =? 0) then s'
                  else match r_dec s' with
                       | DIf x :: d => run f pe ix (if x then t else e2) (upd_dec s' d)
                       | _ => bad s'
                       end
              | EvShort r =>
                  match r_dec s with
                  | DShort x :: d => if x then run f pe ix r (upd_dec s d) else upd_dec s d
                  | _ => bad s
                  end
              | EvCases tag cl =>
                  let s' := run f pe ix tag s in
                  if negb (r_status s' =? 0) then s'
                  else match r_dec s' with
                       | DCase i :: d =>
                           match nth_error cl i with
                           | Some (_, body) => run f pe ix body (upd_dec s' d)
                           | None => bad s'
                           end
                       | _ => bad s'
                       end
              | EvInline _ body =>
                  let s' := run f pe ix body s in
                  if r_status s' =? 3 then upd_status s' 0 else s'
              | EvDefer _ => s
              | EvBreak => upd_status s 1
              | EvContinue => upd_status s 2
              | EvReturn => upd_status s 3
              | EvPanic => failed s 1
              end in
            run f pe ix rest s1
      end
  end.

(* ------------------------------------------------------------------ *)
(* the two observations *)

Definition obs_st (st : mstate) :=
  (rev (out st), enc_ctx (ctx st), cur st, mode st, length (bufs st), depth_ st, unbound st, shared_writes st).

Definition obs_model (r : outcome value * mstate) := (class_of (fst r), obs_st (snd r)).

Definition obs_run (s : rst) :=
  (* every decision consumed, no misfit; the class of the outcome; the state *)
  (if (r_status s =? 9) || negb (match r_dec s with [] => true | _ => false end) then 99
   else if r_status s =? 4 then r_class s else 0,
   obs_st (r_st s)).

Definition start (st : mstate) (d : list dec) : rst :=
  {| r_st := st; r_dec := d; r_status := 0; r_class := 0; r_cd := []; r_last := VUndef |}.

(* the events of one walk of a node of that type: the prologue of walk, then the clause *)
Definition events_of (clause : list wev) : list wev := ev_walk ++ clause.

Definition probe_ok (cf : cfg) (pe : penv) (n : node) (clause : list wev) (d : list dec) (st : mstate) : Prop :=
  obs_model (walk_body cf (probe_w (pe_res pe)) n st) = obs_run (run 200 pe [] (events_of clause) (start st d)).

(* ------------------------------------------------------------------ *)
(* probes *)

Definition bx := Eval vm_compute in b "x".
Definition bv := Eval vm_compute in b "v".
Definition bk1 := Eval vm_compute in b "k1".
Definition bk2 := Eval vm_compute in b "k2".

Definition b_nst := Eval vm_compute in b "ns.t".
Definition b_nsu := Eval vm_compute in b "ns.u".
Definition b_ns := Eval vm_compute in b "ns".

(* the caller: an entered data frame {x} (the caller's own map, id 7), a fresh frame above it; mode 1 *)
Definition st0 : mstate :=
  init_state (sc_enter (new_scope 7 [(bx, VNull)])) 1 b_nst None None 100.

Definition callee_t : template :=
  {| t_name := b_nsu; t_node := NTemplate 90 b_nsu (NList 91 []) 0 false;
     t_ns_name := b_ns; t_ns_autoescape := 3; t_params := []; t_file := [] |}.
Definition cf0 : cfg :=
  {| c_reg := {| r_templates := [callee_t]; r_sources := []; r_files := [] |}; c_ij := None; c_oblig := []; c_msgs := None |}.

Definition R0 (r : string) (m : N) : bstr * list nat * N := (b r, [], m).
Definition R1 (r : string) (i : nat) (m : N) : bstr * list nat * N := (b r, [i], m).
Definition R2 (r : string) (j i : nat) (m : N) : bstr * list nat * N := (b r, [j; i], m).
Definition S0 (r : string) (s : bstr) : bstr * list nat * bstr := (b r, [], s).
Definition S1 (r : string) (i : nat) (s : bstr) : bstr * list nat * bstr := (b r, [i], s).
Definition mkpe refs strs res : penv :=
  {| pe_ref := refs; pe_str := strs; pe_res := res; pe_callee_mode := 3; pe_mode := 2 |}.

Local Ltac probe := unfold probe_ok; vm_compute; reflexivity.

(* ---- LetValueNode: the value is evaluated (s.node restored), then set ---- *)
Lemma probe_LetValue :
  probe_ok cf0 (mkpe [R0 "node" 10; R0 "node.Expr" 11] [S0 "node.Name" bv] [(11, Ok (VInt 5))])
    (NLetValue 10 bv (NNull 11)) ev_LetValueNode [] st0.
Proof. probe. Qed.

(* ---- LetContentNode: the body is rendered into a buffer (one more buffer while it runs), then set ---- *)
Lemma probe_LetContent :
  probe_ok cf0 (mkpe [R0 "node" 10; R0 "node.Body" 11] [S0 "node.Name" bv] [])
    (NLetContent 10 bv (NRawText 11 bx)) ev_LetContentNode [] st0.
Proof. probe. Qed.

(* ---- ListNode: push, the children in order (WALKED: s.node stays on the last), pop ---- *)
Lemma probe_List :
  probe_ok cf0 (mkpe [R0 "node" 10; R1 "node.Nodes[]" 0 11; R1 "node.Nodes[]" 1 12; R1 "node.Nodes[]" 2 13] [] [])
    (NList 10 [NNull 11; NNull 12; NNull 13]) ev_ListNode [DLoop 3] st0.
Proof. probe. Qed.
(* a failing child: the pop is not reached *)
Lemma probe_List_fail :
  probe_ok cf0 (mkpe [R0 "node" 10; R1 "node.Nodes[]" 0 11; R1 "node.Nodes[]" 1 12; R1 "node.Nodes[]" 2 13] [] [(12, Err [1])])
    (NList 10 [NNull 11; NNull 12; NNull 13]) ev_ListNode [DLoop 3] st0.
Proof. probe. Qed.

(* ---- RawTextNode / MsgHtmlTagNode: one write of the text ---- *)
Lemma probe_RawText :
  probe_ok cf0 (mkpe [R0 "node" 10] [S0 "node.Text" bx] []) (NRawText 10 bx) ev_RawTextNode [DIf false] st0.
Proof. probe. Qed.
Lemma probe_MsgHtmlTag :
  probe_ok cf0 (mkpe [R0 "node" 10] [S0 "node.Text" bx] []) (NMsgHtmlTag 10 bx) ev_MsgHtmlTagNode [DIf false] st0.
Proof. probe. Qed.
(* a writer that refuses the first call: errorf *)
Lemma probe_RawText_refused :
  probe_ok cf0 (mkpe [R0 "node" 10] [S0 "node.Text" bx] []) (NRawText 10 bx) ev_RawTextNode []
    (init_state (sc_enter (new_scope 7 [])) 1 [] (Some O) None 100).
Proof. probe. Qed.

(* ---- IfNode: the conditions in order until one is truthy (or absent); its body walked; nothing after ---- *)
Definition if3 : node :=
  NIf 10 [NIfCond 20 (Some (NNull 21)) (NNull 22); NIfCond 30 (Some (NNull 31)) (NNull 32); NIfCond 40 None (NNull 42)].
Definition if3_refs := [R0 "node" 10; R1 "node.Conds[].Cond" 0 21; R1 "node.Conds[].Body" 0 22; R1 "node.Conds[].Cond" 1 31; R1 "node.Conds[].Body" 1 32;
                        R1 "node.Conds[].Cond" 2 41; R1 "node.Conds[].Body" 2 42].
Lemma probe_If_second :
  probe_ok cf0 (mkpe if3_refs [] [(21, Ok (VBool false)); (31, Ok (VBool true))]) if3 ev_IfNode
    [DLoop 3; DShort true; DIf false; DShort true; DIf true] st0.
Proof. probe. Qed.
Lemma probe_If_else :
  probe_ok cf0 (mkpe if3_refs [] [(21, Ok (VBool false)); (31, Ok VNull)]) if3 ev_IfNode
    [DLoop 3; DShort true; DIf false; DShort true; DIf false; DShort false; DIf true] st0.
Proof. probe. Qed.
Lemma probe_If_first :
  probe_ok cf0 (mkpe if3_refs [] [(21, Ok (VInt 1))]) if3 ev_IfNode [DLoop 3; DShort true; DIf true] st0.
Proof. probe. Qed.
Lemma probe_If_none :
  probe_ok cf0 (mkpe if3_refs [] [(21, Ok (VInt 0))]) (NIf 10 [NIfCond 20 (Some (NNull 21)) (NNull 22)]) ev_IfNode
    [DLoop 1; DShort true; DIf false] st0.
Proof. probe. Qed.

(* ---- SwitchNode: the value, then the case values in order; the first equal one's body; a case without values is
   the default ---- *)
Definition sw : node :=
  NSwitch 10 (NNull 11) [NSwitchCase 20 [NNull 21; NNull 22] (NNull 23); NSwitchCase 30 [NNull 31] (NNull 33);
                          NSwitchCase 40 [] (NNull 43)].
Definition sw_refs := [R0 "node" 10; R0 "node.Value" 11; R2 "node.Cases[].Values[]" 0 0 21; R2 "node.Cases[].Values[]" 1 0 22;
                       R1 "node.Cases[].Body" 0 23; R2 "node.Cases[].Values[]" 0 1 31; R1 "node.Cases[].Body" 1 33; R1 "node.Cases[].Body" 2 43].
Lemma probe_Switch_second_value :
  probe_ok cf0 (mkpe sw_refs [] [(11, Ok (VInt 2)); (21, Ok (VInt 1)); (22, Ok (VInt 2))]) sw ev_SwitchNode
    [DLoop 3; DLoop 2; DIf false; DIf true] st0.
Proof. probe. Qed.
Lemma probe_Switch_second_case :
  probe_ok cf0 (mkpe sw_refs [] [(11, Ok (VInt 3)); (21, Ok (VInt 1)); (22, Ok (VInt 2)); (31, Ok (VInt 3))]) sw ev_SwitchNode
    [DLoop 3; DLoop 2; DIf false; DIf false; DIf false; DLoop 1; DIf true] st0.
Proof. probe. Qed.
Lemma probe_Switch_default :
  probe_ok cf0 (mkpe sw_refs [] [(11, Ok (VInt 9)); (21, Ok (VInt 1)); (22, Ok (VInt 2)); (31, Ok (VInt 3))]) sw ev_SwitchNode
    [DLoop 3; DLoop 2; DIf false; DIf false; DIf false; DLoop 1; DIf false; DIf false; DLoop 0; DIf true] st0.
Proof. probe. Qed.

(* ---- ForNode ---- *)
Definition for_n : node := NFor 10 bv (NNull 11) (NNull 12) (Some (NNull 13)).
Definition for_refs := [R0 "node" 10; R0 "node.List" 11; R0 "node.Body" 12; R0 "node.IfEmpty" 13].
(* two items: push; v.lastIndex; per item v and v.index set and the body walked; pop *)
Lemma probe_For_items :
  probe_ok cf0 (mkpe for_refs [S0 "node.Var" bv] [(11, Ok (VList 50 [VInt 1; VInt 2]))]) for_n ev_ForNode
    [DIf false; DIf false; DLoop 2] st0.
Proof. probe. Qed.
(* empty list: ifempty walked, no frame pushed *)
Lemma probe_For_empty :
  probe_ok cf0 (mkpe for_refs [S0 "node.Var" bv] [(11, Ok (VList 1 []))]) for_n ev_ForNode
    [DIf false; DIf true; DIf true] st0.
Proof. probe. Qed.
Lemma probe_For_empty_no_ifempty :
  probe_ok cf0 (mkpe for_refs [S0 "node.Var" bv] [(11, Ok (VList 1 []))]) (NFor 10 bv (NNull 11) (NNull 12) None) ev_ForNode
    [DIf false; DIf true; DIf false] st0.
Proof. probe. Qed.
(* not a list: errorf *)
Lemma probe_For_not_a_list :
  probe_ok cf0 (mkpe for_refs [S0 "node.Var" bv] [(11, Ok (VInt 3))]) for_n ev_ForNode [DIf true] st0.
Proof. probe. Qed.
(* a failing body: the frame stays (the panic unwinds past the pop) *)
Lemma probe_For_body_fails :
  probe_ok cf0 (mkpe for_refs [S0 "node.Var" bv] [(11, Ok (VList 50 [VInt 1; VInt 2])); (12, Err [1])]) for_n ev_ForNode
    [DIf false; DIf false; DLoop 2] st0.
Proof. probe. Qed.

(* ---- CallNode ---- *)
Definition call_name := Eval vm_compute in b "ns.u".
Definition call_params_n := [NParamValue 20 bk1 (NNull 21); NParamContent 30 bk2 (NNull 31); NParamValue 40 bk1 (NNull 41)].
Definition call_refs := [R0 "node" 10; R0 "node.Data" 11; R1 "node.Params[].Value" 0 21; R1 "node.Params[].Content" 1 31; R1 "node.Params[].Value" 2 41;
                         R0 "?.Node" 90].
Definition call_strs := [S1 "node.Params[].Key" 0 bk1; S1 "node.Params[].Key" 1 bk2; S1 "node.Params[].Key" 2 bk1].
(* no data: a fresh scope; the params in order (value evaluated, content rendered) in the CALLER's scope; s.at(node);
   the callee walked with the new scope entered, its namespace's mode, one level deeper; caller's back *)
Lemma probe_Call_nodata :
  probe_ok cf0 (mkpe call_refs call_strs []) (NCall 10 call_name false None call_params_n) ev_CallNode
    [DIf false; DIf false; DIf false; DLoop 3; DCase 0; DCase 1; DCase 0] st0.
Proof. probe. Qed.
(* data="all": the caller's frames from the entered one, plus a fresh frame *)
Lemma probe_Call_alldata :
  probe_ok cf0 (mkpe call_refs call_strs []) (NCall 10 call_name true None call_params_n) ev_CallNode
    [DIf false; DIf true; DLoop 3; DCase 0; DCase 1; DCase 0] st0.
Proof. probe. Qed.
(* data=$m: a scope on that map (the caller's own object: origin external) plus a fresh frame *)
Lemma probe_Call_data :
  probe_ok cf0 (mkpe call_refs call_strs [(11, Ok (VMap 60 [(bx, VInt 1)]))]) (NCall 10 call_name false (Some (NNull 11)) call_params_n)
    ev_CallNode [DIf false; DIf false; DIf true; DIf false; DLoop 3; DCase 0; DCase 1; DCase 0] st0.
Proof. probe. Qed.
(* data= not a map *)
Lemma probe_Call_data_not_map :
  probe_ok cf0 (mkpe call_refs call_strs [(11, Ok (VInt 1))]) (NCall 10 call_name false (Some (NNull 11)) call_params_n)
    ev_CallNode [DIf false; DIf false; DIf true; DIf true] st0.
Proof. probe. Qed.
(* unknown template: nothing is evaluated *)
Lemma probe_Call_unknown :
  probe_ok cf0 (mkpe call_refs call_strs []) (NCall 10 bx false None call_params_n) ev_CallNode [DIf true] st0.
Proof. probe. Qed.
(* the callee fails: the caller's scope, mode and depth are back *)
Lemma probe_Call_callee_fails :
  probe_ok cf0 (mkpe call_refs call_strs [(90, Err [1])]) (NCall 10 call_name false None call_params_n) ev_CallNode
    [DIf false; DIf false; DIf false; DLoop 3; DCase 0; DCase 1; DCase 0] st0.
Proof. probe. Qed.

(* ---- TemplateNode: the template's own autoescape, if any, then the body ---- *)
Lemma probe_Template_mode :
  probe_ok cf0 (mkpe [R0 "node" 10; R0 "node.Body" 11] [] []) (NTemplate 10 bx (NNull 11) 2 false) ev_TemplateNode [DIf true] st0.
Proof. probe. Qed.
Lemma probe_Template_nomode :
  probe_ok cf0 (mkpe [R0 "node" 10; R0 "node.Body" 11] [] []) (NTemplate 10 bx (NNull 11) 0 false) ev_TemplateNode [DIf false] st0.
Proof. probe. Qed.

(* ---- CssNode, LogNode ---- *)
Definition bdash := Eval vm_compute in b "p-".
Lemma probe_Css_expr :
  probe_ok cf0 (mkpe [R0 "node" 10; R0 "node.Expr" 11] [S0 "?" bdash; S0 "node.Suffix" bx] [(11, Ok (VStr [112]))])
    (NCss 10 (Some (NNull 11)) bx) ev_CssNode [DIf true; DIf false] st0.
Proof. probe. Qed.
Lemma probe_Css_plain :
  probe_ok cf0 (mkpe [R0 "node" 10] [S0 "?" []; S0 "node.Suffix" bx] []) (NCss 10 None bx) ev_CssNode [DIf false; DIf false] st0.
Proof. probe. Qed.
Lemma probe_Log :
  probe_ok cf0 (mkpe [R0 "node" 10; R0 "node.Body" 11] [] []) (NLog 10 (NNull 11)) ev_LogNode [DIf false] st0.
Proof. probe. Qed.

(* ---- PrintNode ---- *)
Definition d_id := Eval vm_compute in b "id".
Definition d_trunc := Eval vm_compute in b "truncate".
Definition bstr_s := Eval vm_compute in b "a<c".
(* no directive, mode 1: the argument WALKED (s.node stays inside it), the escaped writes: "a", "&lt;", "c" *)
Lemma probe_Print_plain :
  probe_ok cf0 (mkpe [R0 "node" 10; R0 "node.Arg" 11] [S0 "?.String()" bstr_s] [(11, Ok (VStr bstr_s))])
    (NPrint 10 (NNull 11) []) ev_PrintNode [DIf false; DLoop 0; DLoop 0; DIf true; DIf false] st0.
Proof. probe. Qed.
(* undefined: errorf before anything else *)
Lemma probe_Print_undefined :
  probe_ok cf0 (mkpe [R0 "node" 10; R0 "node.Arg" 11] [] [(11, Ok VUndef)])
    (NPrint 10 (NNull 11) [NDirective 20 d_trunc [NNull 21]]) ev_PrintNode [DIf true] st0.
Proof. probe. Qed.
(* two directives with an argument each (|truncate:5 |truncate:7): arguments evaluated in order, s.node restored to
   where the walk of the argument left it; one escaped write *)
Lemma probe_Print_directives :
  probe_ok cf0 (mkpe [R0 "node" 10; R0 "node.Arg" 11; R2 "?[].Args[]" 0 0 21; R2 "?[].Args[]" 0 1 31] [S0 "?.String()" bx]
                  [(11, Ok (VStr bx)); (21, Ok (VInt 5)); (31, Ok (VInt 7))])
    (NPrint 10 (NNull 11) [NDirective 20 d_trunc [NNull 21]; NDirective 30 d_trunc [NNull 31]]) ev_PrintNode
    [DIf false; DLoop 0; DLoop 2; DIf false; DIf false; DLoop 1; DFails false; DIf false; DIf false; DIf false; DLoop 1; DFails false; DIf false; DIf true; DIf false] st0.
Proof. probe. Qed.
(* an unknown directive: errorf before its arguments are evaluated *)
Lemma probe_Print_unknown_directive :
  probe_ok cf0 (mkpe [R0 "node" 10; R0 "node.Arg" 11; R2 "?[].Args[]" 0 0 21] [] [(11, Ok (VStr bx))])
    (NPrint 10 (NNull 11) [NDirective 20 bx [NNull 21]]) ev_PrintNode [DIf false; DLoop 0; DLoop 1; DIf true] st0.
Proof. probe. Qed.

(* when the Apply of a directive fails, exec.go has not evaluated the arguments of the LATER directives (the loop
   applies each directive right after its arguments), and so does [print_dirs].  Witness on the real code:
     {$x|truncate:'a'|truncate:<newline>$u.v}  with x = "hello", u unbound
   robfig/soy: "template n.t:7: panic in |truncate:'a' ..." (line of the print, nothing looked up after it).
   The probe: |truncate:"s" (Apply fails) |truncate:<marker 31>; the event list stops at the first Apply, and so
   does the model's trace: marker 31 is not evaluated. *)
Lemma probe_Print_apply_order :
  probe_ok cf0 (mkpe [R0 "node" 10; R0 "node.Arg" 11; R2 "?[].Args[]" 0 0 21; R2 "?[].Args[]" 0 1 31] [S0 "?.String()" bx]
                  [(11, Ok (VStr bx)); (21, Ok (VStr bx)); (31, Ok (VInt 7))])
    (NPrint 10 (NNull 11) [NDirective 20 d_trunc [NNull 21]; NDirective 30 d_trunc [NNull 31]]) ev_PrintNode
    [DIf false; DLoop 0; DLoop 2; DIf false; DIf false; DLoop 1; DFails true] st0.
Proof. probe. Qed.
(* the second Apply fails: both argument lists evaluated, the first directive applied *)
Lemma probe_Print_apply_second_fails :
  probe_ok cf0 (mkpe [R0 "node" 10; R0 "node.Arg" 11; R2 "?[].Args[]" 0 0 21; R2 "?[].Args[]" 0 1 31] [S0 "?.String()" bx]
                  [(11, Ok (VStr bx)); (21, Ok (VInt 5)); (31, Ok (VStr bx))])
    (NPrint 10 (NNull 11) [NDirective 20 d_trunc [NNull 21]; NDirective 30 d_trunc [NNull 31]]) ev_PrintNode
    [DIf false; DLoop 0; DLoop 2; DIf false; DIf false; DLoop 1; DFails false; DIf false; DIf false; DIf false; DLoop 1; DFails true] st0.
Proof. probe. Qed.

(* ---- FunctionNode: arity, then the arguments in order, then Apply ---- *)
Definition n_len := Eval vm_compute in b "length".
Lemma probe_Function :
  probe_ok cf0 (mkpe [R0 "node" 10; R1 "node.Args[]" 0 11] [] [(11, Ok (VList 50 [VInt 1]))]) (NFunc 10 n_len [NNull 11]) ev_FunctionNode
    [DIf false; DIf true; DIf false; DLoop 1; DFails false; DIf false] st0.
Proof. probe. Qed.
Lemma probe_Function_arity :
  probe_ok cf0 (mkpe [R0 "node" 10; R1 "node.Args[]" 0 11; R1 "node.Args[]" 1 12] [] []) (NFunc 10 n_len [NNull 11; NNull 12]) ev_FunctionNode
    [DIf false; DIf true; DIf true] st0.
Proof. probe. Qed.

(* ---- DataRefNode: the base looked up in the scope, then the accesses in order (an expression key evaluated) ---- *)
Definition st_map : mstate :=
  init_state (sc_enter (new_scope 7 [(bx, VMap 70 [(bk1, VMap 71 [(bk2, VInt 1)])])])) 1 b_nst None None 100.
Lemma probe_DataRef :
  probe_ok cf0 (mkpe [R0 "node" 10; R1 "node.Access[].Arg" 0 21] [S0 "node.Key" bx] [(21, Ok (VStr bk1))])
    (NDataRef 10 bx [NAccExpr 20 false (NNull 21); NAccKey 30 false bk2]) ev_DataRefNode
    [DIf false; DIf false; DLoop 2; DCase 2; DCase 1; DCase 2; DIf false; DCase 1; DCase 2; DIf false] st_map.
Proof. probe. Qed.
(* an unbound base is looked up (and counted) before the access fails *)
Lemma probe_DataRef_unbound :
  probe_ok cf0 (mkpe [R0 "node" 10] [S0 "node.Key" bv] []) (NDataRef 10 bv [NAccKey 30 false bk2]) ev_DataRefNode
    [DIf false; DIf false; DLoop 1; DCase 1; DCase 0; DIf false] st_map.
Proof. probe. Qed.

(* ---- MsgNode, without a bundle: walkMsgBody ---- *)
Definition msg_n : node :=
  NMsg 10 77 [] [] [NRawText 11 bx; NMsgPlaceholder 12 bk1 (NNull 13); NRawText 14 bx].
Lemma probe_Msg_flat :
  probe_ok cf0 (mkpe [R0 "node" 10; R1 "node.Body.Children()[]" 0 11; R1 "node.Body.Children()[].Body" 1 13; R1 "node.Body.Children()[]" 2 14] [] []) msg_n ev_MsgNode
    [DIf true; DLoop 3; DCase 0; DCase 1; DCase 0] st0.
Proof. probe. Qed.
(* a plural: the value evaluated, the case with that value (walked as a message body at the message's position) *)
Definition msg_pl : node :=
  NMsg 10 77 [] [] [NMsgPlural 12 bv (NNull 13) [NMsgPluralCase 20 1 [NRawText 21 bx]; NMsgPluralCase 30 2 [NRawText 31 bx]] [NRawText 41 bx]].
Lemma probe_Msg_plural_case :
  probe_ok cf0 (mkpe [R0 "node" 10; R1 "node.Body.Children()[].Value" 0 13; R2 "node.Body.Children()[].Cases[].Body" 1 0 10] [] [(13, Ok (VInt 2))]) msg_pl ev_MsgNode
    [DIf true; DLoop 1; DCase 2; DIf false; DLoop 2; DIf false; DIf true] st0.
Proof. probe. Qed.
Lemma probe_Msg_plural_default :
  probe_ok cf0 (mkpe [R0 "node" 10; R1 "node.Body.Children()[].Value" 0 13; R1 "node.Body.Children()[].Default" 0 10] [] [(13, Ok (VInt 5))]) msg_pl ev_MsgNode
    [DIf true; DLoop 1; DCase 2; DIf false; DLoop 2; DIf false; DIf false] st0.
Proof. probe. Qed.
Lemma probe_Msg_plural_not_int :
  probe_ok cf0 (mkpe [R0 "node" 10; R1 "node.Body.Children()[].Value" 0 13] [] [(13, Ok (VStr bx))]) msg_pl ev_MsgNode
    [DIf true; DLoop 1; DCase 2; DIf true] st0.
Proof. probe. Qed.

(* ---- operators: the order of the operands ---- *)
Definition two_refs := [R0 "node" 10; R0 "node.Arg1" 11; R0 "node.Arg2" 12; R0 "node.Arg3" 13].
Lemma probe_Add : probe_ok cf0 (mkpe two_refs [] [(11, Ok (VInt 1)); (12, Ok (VInt 2))]) (NBin OAdd 10 (NNull 11) (NNull 12)) ev_AddNode [DCase 0] st0.
Proof. probe. Qed.
Lemma probe_Add_first_undefined : probe_ok cf0 (mkpe two_refs [] [(12, Ok (VInt 2))]) (NBin OAdd 10 (NNull 11) (NNull 12)) ev_AddNode [] st0.
Proof. probe. Qed.
Lemma probe_Eq : probe_ok cf0 (mkpe two_refs [] [(11, Ok (VInt 1)); (12, Ok (VInt 2))]) (NBin OEq 10 (NNull 11) (NNull 12)) ev_eq [] st0.
Proof. probe. Qed.
Lemma probe_Lt : probe_ok cf0 (mkpe two_refs [] [(11, Ok (VInt 1)); (12, Ok (VInt 2))]) (NBin OLt 10 (NNull 11) (NNull 12)) ev_cmp [] st0.
Proof. probe. Qed.
Lemma probe_And_short : probe_ok cf0 (mkpe two_refs [] [(11, Ok (VBool false))]) (NBin OAnd 10 (NNull 11) (NNull 12)) ev_andor [DShort false] st0.
Proof. probe. Qed.
Lemma probe_And_both : probe_ok cf0 (mkpe two_refs [] [(11, Ok (VBool true))]) (NBin OAnd 10 (NNull 11) (NNull 12)) ev_andor [DShort true] st0.
Proof. probe. Qed.
Lemma probe_Or_short : probe_ok cf0 (mkpe two_refs [] [(11, Ok (VBool true))]) (NBin OOr 10 (NNull 11) (NNull 12)) ev_andor [DShort false] st0.
Proof. probe. Qed.
Lemma probe_Elvis : probe_ok cf0 (mkpe two_refs [] [(11, Ok VNull)]) (NBin OElvis 10 (NNull 11) (NNull 12)) ev_ElvisNode [DIf false] st0.
Proof. probe. Qed.
Lemma probe_Tern_then : probe_ok cf0 (mkpe two_refs [] [(11, Ok (VBool true))]) (NTern 10 (NNull 11) (NNull 12) (NNull 13)) ev_TernNode [DIf true] st0.
Proof. probe. Qed.
Lemma probe_Tern_else : probe_ok cf0 (mkpe two_refs [] [(11, Ok (VBool false))]) (NTern 10 (NNull 11) (NNull 12) (NNull 13)) ev_TernNode [DIf false] st0.
Proof. probe. Qed.
Lemma probe_ListLit :
  probe_ok cf0 (mkpe [R0 "node" 10; R1 "node.Items[]" 0 11; R1 "node.Items[]" 1 12] [] []) (NListLit 10 [NNull 11; NNull 12]) ev_ListLiteralNode [DLoop 2] st0.
Proof. probe. Qed.

Lemma probe_MapLit :
  probe_ok cf0 (mkpe [R0 "node" 10; R1 "node.Items[]" 0 11; R1 "node.Items[]" 1 12] [] []) (NMapLit 10 [(bk1, NNull 11); (bk2, NNull 12)]) ev_MapLiteralNode [DLoop 2] st0.
Proof. probe. Qed.
Definition one_refs := [R0 "node" 10; R0 "node.Arg" 11].
Lemma probe_Negate : probe_ok cf0 (mkpe one_refs [] [(11, Ok (VInt 1))]) (NNeg 10 (NNull 11)) ev_NegateNode [DCase 0] st0.
Proof. probe. Qed.
Lemma probe_Negate_not_a_number : probe_ok cf0 (mkpe one_refs [] [(11, Ok (VStr bx))]) (NNeg 10 (NNull 11)) ev_NegateNode [DCase 2] st0.
Proof. probe. Qed.
Lemma probe_Not : probe_ok cf0 (mkpe one_refs [] [(11, Ok (VInt 1))]) (NNot 10 (NNull 11)) ev_NotNode [] st0.
Proof. probe. Qed.
Lemma probe_Sub : probe_ok cf0 (mkpe two_refs [] [(11, Ok (VInt 1)); (12, Ok (VInt 2))]) (NBin OSub 10 (NNull 11) (NNull 12)) ev_SubNode [DCase 0] st0.
Proof. probe. Qed.
Lemma probe_Mul : probe_ok cf0 (mkpe two_refs [] [(11, Ok (VInt 1)); (12, Ok (VInt 2))]) (NBin OMul 10 (NNull 11) (NNull 12)) ev_MulNode [DCase 0] st0.
Proof. probe. Qed.
Lemma probe_Div : probe_ok cf0 (mkpe two_refs [] [(11, Ok (VInt 1)); (12, Ok (VInt 2))]) (NBin ODiv 10 (NNull 11) (NNull 12)) ev_DivNode [] st0.
Proof. probe. Qed.
Lemma probe_Mod : probe_ok cf0 (mkpe two_refs [] [(11, Ok (VInt 5)); (12, Ok (VInt 2))]) (NBin OMod 10 (NNull 11) (NNull 12)) ev_ModNode [] st0.
Proof. probe. Qed.
Lemma probe_NotEq : probe_ok cf0 (mkpe two_refs [] [(11, Ok (VInt 1)); (12, Ok (VInt 2))]) (NBin ONotEq 10 (NNull 11) (NNull 12)) ev_eq [] st0.
Proof. probe. Qed.
Lemma probe_Gte : probe_ok cf0 (mkpe two_refs [] [(11, Ok (VInt 1)); (12, Ok (VInt 2))]) (NBin OGte 10 (NNull 11) (NNull 12)) ev_cmp [] st0.
Proof. probe. Qed.
Lemma probe_value : probe_ok cf0 (mkpe [R0 "node" 10] [] []) (NInt 10 5) ev_value [] st0.
Proof. probe. Qed.
Lemma probe_Debugger : probe_ok cf0 (mkpe [R0 "node" 10] [] []) (NDebugger 10) ev_DebuggerNode [] st0.
Proof. probe. Qed.
(* DIFF: SoyFileNode has no constructor in Model/Ast.v ([walk_node] fails with "unknown node" on anything else);
   a render never walks one (Execute walks the template's node).  A node type outside the switch: errorf. *)
Lemma probe_default : probe_ok cf0 (mkpe [R0 "node" 10] [] []) (NOther 10 bx) ev_default [] st0.
Proof. probe. Qed.

(* ------------------------------------------------------------------ *)
(* the probes do discriminate: a hand table with the pop dropped, with two evaluations swapped, with a write
   added, does not pass *)
Local Ltac refuted := unfold probe_ok; vm_compute; discriminate.

Definition ev_ListNode_no_pop := Eval vm_compute in
  [C "s.context.push" []; LOOP "node.Nodes" [C "s.walk" [R "node.Nodes[]"]]].
Lemma probe_detects_dropped_pop :
  ~ probe_ok cf0 (mkpe [R0 "node" 10; R1 "node.Nodes[]" 0 11; R1 "node.Nodes[]" 1 12; R1 "node.Nodes[]" 2 13] [] [])
      (NList 10 [NNull 11; NNull 12; NNull 13]) ev_ListNode_no_pop [DLoop 3] st0.
Proof. refuted. Qed.

Definition ev_eq_swapped := Eval vm_compute in [C "s.eval" [R "node.Arg2"]; C "s.eval" [R "node.Arg1"]; VAL].
Lemma probe_detects_swapped_evaluations :
  ~ probe_ok cf0 (mkpe two_refs [] [(11, Ok (VInt 1)); (12, Ok (VInt 2))]) (NBin OEq 10 (NNull 11) (NNull 12)) ev_eq_swapped [] st0.
Proof. refuted. Qed.

Definition ev_LetValue_extra_write := Eval vm_compute in
  [C "s.eval" [R "node.Expr"]; C "s.wr.Write" [R "node.Name"]; C "s.context.set" [R "node.Name"; OTH]].
Lemma probe_detects_added_write :
  ~ probe_ok cf0 (mkpe [R0 "node" 10; R0 "node.Expr" 11] [S0 "node.Name" bv] [(11, Ok (VInt 5))])
      (NLetValue 10 bv (NNull 11)) ev_LetValue_extra_write [] st0.
Proof. refuted. Qed.

(* eval instead of walk (s.node restored or not) is seen *)
Definition ev_Template_eval := Eval vm_compute in [EvIf [] [A "s.autoescape"] []; C "s.eval" [R "node.Body"]].
Lemma probe_detects_eval_for_walk :
  ~ probe_ok cf0 (mkpe [R0 "node" 10; R0 "node.Body" 11] [] []) (NTemplate 10 bx (NNull 11) 0 false) ev_Template_eval [DIf false] st0.
Proof. refuted. Qed.

(* a set moved before the evaluation of its value is seen by the child *)
Definition ev_LetValue_set_first := Eval vm_compute in
  [C "s.context.set" [R "node.Name"; OTH]; C "s.eval" [R "node.Expr"]].
Lemma probe_detects_set_before_eval :
  ~ probe_ok cf0 (mkpe [R0 "node" 10; R0 "node.Expr" 11] [S0 "node.Name" bv] [(11, Ok (VInt 5))])
      (NLetValue 10 bv (NNull 11)) ev_LetValue_set_first [] st0.
Proof. refuted. Qed.
