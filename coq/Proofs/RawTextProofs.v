(* C15: the loop of parse/rawtext.go implements the line-joining rule. *)
From Soy Require Import Model.Bytes.
From Soy Require Import Model.Utf8.
From Soy Require Import Model.Outcome.
From Soy Require Import Model.RawText.
From Soy Require Import Spec.Text.
Open Scope N_scope.

(* ---------------------------------------------------------------------- *)
(* character classes                                                       *)

Lemma ws_split c : ws c = is_space c || is_eol c.
Proof. unfold ws, is_space, is_eol. destruct (c =? 32), (c =? 9), (c =? 13), (c =? 10); reflexivity. Qed.

Lemma hi_class x : 128 <= x ->
  is_space x = false /\ is_eol x = false /\ is_tight_joiner x = false /\ ws x = false.
Proof.
  intros H. unfold is_space, is_eol, is_tight_joiner, ws.
  assert (forall k, k < 128 -> (x =? k) = false) as E by (intros k Hk; apply N.eqb_neq; lia).
  rewrite !E by lia. repeat split; reflexivity.
Qed.

Lemma cont_hi x : is_cont x = true -> 128 <= x.
Proof. unfold is_cont, in_range. rewrite andb_true_iff, !N.leb_le. lia. Qed.

Lemma in_range_spec lo hi c : in_range lo hi c = true <-> lo <= c /\ c <= hi.
Proof. unfold in_range. rewrite andb_true_iff, !N.leb_le. tauto. Qed.

(* what utf8.DecodeRuneInString tells the loop: an ASCII byte is its own rune;
   otherwise the rune is >= 128 (RuneError for an invalid byte) and the
   remaining width-1 bytes are continuation bytes that exist *)
Lemma decode_class c rest r w :
  decode_rune (c :: rest) = (r, w) ->
  (c < 128 /\ r = c /\ w = 1%nat) \/
  (128 <= c /\ 128 <= r /\ (pred w <= length rest)%nat /\
   Forall (fun x => is_cont x = true) (firstn (pred w) rest)).
Proof.
  intros H. unfold decode_rune in H.
  destruct (N.ltb_spec c 128) as [Hlt|Hge].
  { left. injection H as <- <-. auto. }
  right. split; [exact Hge|].
  assert (Herr : forall w', (rune_error, 1%nat) = (r, w') -> 128 <= r /\ (pred w' <= length rest)%nat /\
            Forall (fun x => is_cont x = true) (firstn (pred w') rest)).
  { intros w' E. injection E as <- <-. unfold rune_error. cbn. repeat split; [lia | lia | constructor]. }
  destruct (in_range 194 223 c) eqn:R2.
  { apply in_range_spec in R2. destruct rest as [|b1 rest]; [auto|].
    destruct (is_cont b1) eqn:C1; [|auto].
    injection H as <- <-. pose proof (cont_hi _ C1). cbn.
    repeat split; [lia | lia | constructor; [exact C1 | constructor]]. }
  destruct (in_range 224 239 c) eqn:R3.
  { apply in_range_spec in R3. destruct rest as [|b1 [|b2 rest]]; [auto | auto |].
    match type of H with (if ?g then _ else _) = _ => destruct g eqn:G end; [|auto].
    apply andb_true_iff in G. destruct G as [G1 C2]. apply in_range_spec in G1.
    assert (is_cont b1 = true) as C1.
    { apply in_range_spec. destruct (c =? 224), (c =? 237); lia. }
    injection H as <- <-. pose proof (cont_hi _ C2). cbn.
    repeat split; [| lia | repeat constructor; assumption].
    destruct (N.eqb_spec c 224); [subst c|]; lia. }
  destruct (in_range 240 244 c) eqn:R4.
  { apply in_range_spec in R4. destruct rest as [|b1 [|b2 [|b3 rest]]]; [auto | auto | auto |].
    match type of H with (if ?g then _ else _) = _ => destruct g eqn:G end; [|auto].
    apply andb_true_iff in G. destruct G as [G C3]. apply andb_true_iff in G. destruct G as [G1 C2].
    apply in_range_spec in G1.
    assert (is_cont b1 = true) as C1.
    { apply in_range_spec. destruct (c =? 240), (c =? 244); lia. }
    injection H as <- <-. pose proof (cont_hi _ C2). pose proof (cont_hi _ C3). cbn.
    repeat split; [| lia | repeat constructor; assumption].
    destruct (N.eqb_spec c 240); [subst c|]; lia. }
  auto.
Qed.

(* the classes the loop looks at agree between a rune and its first byte *)
Lemma decode_same_class c rest r w :
  decode_rune (c :: rest) = (r, w) ->
  is_space r = is_space c /\ is_eol r = is_eol c /\ is_tight_joiner r = is_tight_joiner c.
Proof.
  intros H. destruct (decode_class _ _ _ _ H) as [(_ & -> & _) | (Hc & Hr & _)]; [auto|].
  destruct (hi_class _ Hc) as (-> & -> & -> & _). destruct (hi_class _ Hr) as (-> & -> & -> & _). auto.
Qed.

(* ---------------------------------------------------------------------- *)
(* the run decomposition                                                   *)

Lemma runs_head c s : exists run rest, runs (c :: s) = (ws c, c :: run) :: rest.
Proof.
  cbn [runs]. destruct (runs s) as [|[k run] rest]; [eauto|].
  destruct (Bool.eqb k (ws c)) eqn:E; [|eauto].
  apply Bool.eqb_prop in E. subst k. eauto.
Qed.

Lemma first_byte_runs s : first_byte (runs s) = match s with [] => None | c :: _ => Some c end.
Proof.
  destruct s as [|c s]; [reflexivity|].
  destruct (runs_head c s) as (run & rest & ->). reflexivity.
Qed.

Lemma runs_concat s : concat (map snd (runs s)) = s.
Proof.
  induction s as [|c s IH]; [reflexivity|].
  cbn [runs]. destruct (runs s) as [|[k run] rest].
  - cbn in *. subst. reflexivity.
  - destruct (Bool.eqb k (ws c)); cbn in *; rewrite IH; reflexivity.
Qed.

(* a white-space run followed by the end or by another byte is one run *)
Lemma runs_ws_prefix w s :
  w <> [] -> Forall (fun x => ws x = true) w ->
  match s with [] => True | d :: _ => ws d = false end ->
  runs (w ++ s) = (true, w) :: runs s.
Proof.
  intros Hne Hw Hs. induction w as [|c w IH]; [congruence|].
  inversion Hw as [|? ? Hc Hw']; subst.
  destruct w as [|c' w].
  - cbn [app runs]. destruct s as [|d s].
    + cbn. rewrite Hc. reflexivity.
    + destruct (runs_head d s) as (run & rest & E). rewrite E, Hs, Hc. reflexivity.
  - specialize (IH ltac:(congruence) Hw').
    change ((c :: c' :: w) ++ s) with (c :: ((c' :: w) ++ s)).
    cbn [runs]. rewrite IH, Hc. reflexivity.
Qed.

Section Joiner.
Variable J : N -> bool.

Definition NF (tb ta : bool) (prev : option N) (s : bstr) : bstr := norm_runs J tb ta prev (runs s).

(* a byte that is not white space is copied *)
Lemma NF_nonws tb ta prev c s : ws c = false -> NF tb ta prev (c :: s) = c :: NF tb ta (Some c) s.
Proof.
  intros Hc. unfold NF. cbn [runs]. destruct (runs s) as [|[k run] rest].
  - rewrite Hc. reflexivity.
  - rewrite Hc. destruct k; cbn [Bool.eqb norm_runs last_byte app]; reflexivity.
Qed.

Lemma NF_ws_run tb ta prev w s :
  w <> [] -> Forall (fun x => ws x = true) w ->
  match s with [] => True | d :: _ => ws d = false end ->
  NF tb ta prev (w ++ s) =
  ws_run_image J tb ta prev (match s with [] => None | d :: _ => Some d end) w ++ NF tb ta prev s.
Proof.
  intros Hne Hw Hs. unfold NF. rewrite (runs_ws_prefix w s Hne Hw Hs).
  cbn [norm_runs]. rewrite first_byte_runs. reflexivity.
Qed.

Lemma NF_nil tb ta prev : NF tb ta prev [] = [].
Proof. reflexivity. Qed.

End Joiner.

(* ---------------------------------------------------------------------- *)
(* the loop                                                                *)

Lemma firstn_length_app {A} (a b0 : list A) : firstn (length a) (a ++ b0) = a.
Proof. induction a as [|x a IH]; cbn; [destruct b0; reflexivity | rewrite IH; reflexivity]. Qed.

Lemma copy_back_run w before0 n nl last cbt out o :
  rt_copy_back (length w) (rev w ++ before0) (mk_rt n nl last cbt out o) = mk_rt n nl last cbt (rev w ++ out) o.
Proof.
  unfold rt_copy_back. cbn [rt_spaces rt_nl rt_last rt_cbt rt_result rt_oob].
  replace (length w <=? length (rev w ++ before0))%nat with true
    by (symmetry; apply Nat.leb_le; rewrite app_length, rev_length; lia).
  rewrite <- (rev_length w) at 1. rewrite firstn_length_app. reflexivity.
Qed.

Lemma step_more before r c n nl last cbt out :
  is_space r || is_eol r = true ->
  rt_step before r c (mk_rt (S n) nl last cbt out false) = mk_rt (S (S n)) (nl || is_eol r) last cbt out false.
Proof.
  intros H. unfold rt_step. cbn. destruct (is_space r) eqn:Es; [|cbn in H; rewrite H, orb_true_r; reflexivity].
  replace (is_eol r) with false; [rewrite orb_false_r; reflexivity|].
  unfold is_space, is_eol in *. destruct (N.eqb_spec r 32); [subst; reflexivity|]. destruct (N.eqb_spec r 9); [subst; reflexivity|discriminate].
Qed.

Lemma step_text before r c nl last cbt out :
  is_space r = false -> is_eol r = false ->
  rt_step before r c (mk_rt 0 nl last cbt out false) = mk_rt 0 false r cbt (c :: out) false.
Proof. intros H1 H2. unfold rt_step, rt_begin. cbn. rewrite H1, H2. reflexivity. Qed.

Lemma step_begin_trim before r c nl last cbt out :
  is_space r || is_eol r = true ->
  rt_step before r c (mk_rt 0 nl last cbt out false) = mk_rt 1 (is_eol r) last last out false.
Proof. intros H. unfold rt_step, rt_begin. cbn. rewrite H. reflexivity. Qed.

(* end of a white-space run without a line break: the run is copied *)
Lemma step_flush_copy w before0 r c n last cbt out :
  is_space r = false -> is_eol r = false -> S n = length w ->
  rt_step (rev w ++ before0) r c (mk_rt (S n) false last cbt out false)
  = mk_rt 0 false r cbt (c :: rev w ++ out) false.
Proof.
  intros H1 H2 Hn. unfold rt_step, rt_flush. cbn [rt_spaces rt_nl negb]. rewrite H1, H2.
  rewrite Hn, copy_back_run. unfold rt_begin. cbn. rewrite H1, H2. reflexivity.
Qed.

(* end of a white-space run with a line break (or of the phantom space that
   trimBefore puts in front of the text) *)
Lemma step_flush_join before r c n last cbt out :
  is_space r = false -> is_eol r = false ->
  rt_step before r c (mk_rt (S n) true last cbt out false)
  = mk_rt 0 false r cbt
      (c :: (if negb (is_tight_joiner cbt) && negb (is_tight_joiner r) then [32] else []) ++ out) false.
Proof.
  intros H1 H2. unfold rt_step, rt_flush. cbn [rt_spaces rt_nl negb rt_cbt]. rewrite H1, H2.
  destruct (negb (is_tight_joiner cbt) && negb (is_tight_joiner r)); unfold rt_begin; cbn; rewrite H1, H2; reflexivity.
Qed.

Definition prev_rel (prev : option N) (last : N) : Prop :=
  match prev with None => last = 0 | Some p => is_tight_joiner last = is_tight_joiner p end.

Definition contk (k : nat) (s : bstr) : Prop :=
  (k <= length s)%nat /\ Forall (fun x => is_cont x = true) (firstn k s).

Notation NFj := (NF is_tight_joiner).

(* white space is ASCII: one byte *)
Lemma decode_ws_width c rest r wd : decode_rune (c :: rest) = (r, wd) -> ws c = true -> wd = 1%nat.
Proof.
  intros D Wc. destruct (decode_class _ _ _ _ D) as [(_ & _ & ->) | (Hc128 & _)]; [reflexivity|].
  destruct (hi_class _ Hc128) as (_ & _ & _ & E). congruence.
Qed.

(* the bytes the loop skips after the first byte of a rune are its continuation bytes, and a rune that has any is
   not a joiner *)
Lemma decode_next c rest r wd : decode_rune (c :: rest) = (r, wd) ->
  contk (pred wd) rest /\ (pred wd <> 0%nat -> is_tight_joiner r = false).
Proof.
  intros D. destruct (decode_class _ _ _ _ D) as [(_ & _ & ->) | (_ & Hr & Hl & Hf)].
  - split; [split; [cbn; lia | constructor] | intros H; cbn in H; congruence].
  - split; [split; assumption | intros _; apply (hi_class _ Hr)].
Qed.

Lemma finish_text ta before nl last cbt out :
  rt_finish ta before (mk_rt 0 nl last cbt out false) = Ok (rev out).
Proof. unfold rt_finish. cbn. rewrite andb_false_r. reflexivity. Qed.

Lemma rt_loop_inv : forall s,
  (forall tb ta k before nl last cbt out prev,
     contk k s ->
     (k = 0%nat -> prev_rel prev last /\ (prev = None -> tb = false)) ->
     (k <> 0%nat -> is_tight_joiner last = false) ->
     rt_loop ta k before (mk_rt 0 nl last cbt out false) s = Ok (rev out ++ NFj tb ta prev s))
  /\
  (forall tb ta before0 w n nl last cbt out prev,
     Forall (fun x => ws x = true) w ->
     ((n = length w /\ w <> [] /\ nl = existsb line_break w /\ prev_rel prev cbt /\ (prev = None -> tb = false))
      \/ (n = S (length w) /\ nl = true /\ cbt = 0 /\ prev = None /\ tb = true)) ->
     rt_loop ta 0 (rev w ++ before0) (mk_rt n nl last cbt out false) s
     = Ok (rev out ++ NFj tb ta prev (w ++ s))).
Proof.
  induction s as [|c rest [IHA IHB]]; split.
  - (* text state, end of input *)
    intros tb ta k before nl last cbt out prev [Hk _] _ _.
    cbn in Hk. assert (k = 0%nat) by lia. subst k.
    cbn [rt_loop]. rewrite finish_text, NF_nil, app_nil_r. reflexivity.
  - (* space state, end of input *)
    intros tb ta before0 w n nl last cbt out prev Hw Hst.
    cbn [rt_loop]. unfold rt_finish.
    destruct Hst as [(-> & Hne & -> & Hrel & Htb) | (-> & -> & -> & -> & ->)].
    + cbn [rt_nl rt_spaces].
      replace (0 <? length w)%nat with true
        by (symmetry; apply Nat.ltb_lt; destruct w; [congruence | cbn; lia]).
      rewrite (NF_ws_run is_tight_joiner tb ta prev w [] Hne Hw I).
      rewrite NF_nil, app_nil_r. unfold ws_run_image.
      destruct (existsb line_break w); cbn [negb andb].
      * cbn. destruct prev; rewrite ?app_nil_r; reflexivity.
      * replace (is_none prev && tb) with false
          by (destruct prev; [reflexivity | rewrite Htb; reflexivity]).
        cbn [is_none andb orb]. destruct ta; cbn [negb].
        -- cbn. rewrite ?app_nil_r. reflexivity.
        -- rewrite copy_back_run. cbn. rewrite rev_app_distr, rev_involutive, ?app_nil_r. reflexivity.
    + cbn [rt_nl negb andb rt_oob rt_result]. destruct w as [|x w]; [cbn; rewrite app_nil_r; reflexivity|].
      rewrite (NF_ws_run is_tight_joiner true ta None (x :: w) [] ltac:(congruence) Hw I).
      rewrite NF_nil. unfold ws_run_image. destruct (existsb line_break (x :: w)); rewrite !app_nil_r; reflexivity.
  - (* text state, a byte *)
    intros tb ta k before nl last cbt out prev [Hk Hc] H0 Hn0.
    destruct k as [|k].
    + destruct (H0 eq_refl) as [Hrel Htb].
      cbn [rt_loop]. destruct (decode_rune (c :: rest)) as [r wd] eqn:D.
      destruct (decode_same_class _ _ _ _ D) as (Es & Ee & Et). destruct (decode_next _ _ _ _ D) as [Hck Hj].
      destruct (ws c) eqn:Wc.
      * (* white space begins *)
        rewrite (decode_ws_width _ _ _ _ D Wc). cbn [pred]. rewrite ws_split in Wc.
        rewrite step_begin_trim by (rewrite Es, Ee; exact Wc).
        specialize (IHB tb ta before [c] 1%nat (is_eol r) last last out prev).
        cbn [rev app] in IHB. apply IHB.
        -- constructor; [rewrite ws_split; exact Wc | constructor].
        -- left. repeat split; [congruence | | exact Hrel | exact Htb].
           cbn. rewrite orb_false_r, Ee. reflexivity.
      * (* a rune that is not white space *)
        rewrite (NF_nonws is_tight_joiner tb ta prev c rest Wc).
        rewrite ws_split in Wc. apply orb_false_iff in Wc. destruct Wc as [Wc1 Wc2].
        rewrite step_text by congruence.
        rewrite (IHA tb ta (pred wd) (c :: before) false r cbt (c :: out) (Some c) Hck); [|intros _; split; [exact Et | discriminate]|exact Hj].
        cbn [rev]. rewrite <- app_assoc. reflexivity.
    + (* continuation byte of the current rune *)
      cbn [rt_loop]. unfold rt_push. cbn [rt_spaces rt_nl rt_last rt_cbt rt_result rt_oob].
      cbn in Hk, Hc. inversion Hc as [|? ? Hcc Hc']; subst.
      destruct (hi_class _ (cont_hi _ Hcc)) as (_ & _ & Tc & Wc).
      rewrite (NF_nonws is_tight_joiner tb ta prev c rest Wc).
      rewrite (IHA tb ta k (c :: before) nl last cbt (c :: out) (Some c)).
      * cbn [rev]. rewrite <- app_assoc. reflexivity.
      * split; [lia | exact Hc'].
      * intros _. split; [|discriminate]. cbn. rewrite Tc. apply Hn0. discriminate.
      * intros _. apply Hn0. discriminate.
  - (* space state, a byte *)
    intros tb ta before0 w n nl last cbt out prev Hw Hst.
    cbn [rt_loop]. destruct (decode_rune (c :: rest)) as [r wd] eqn:D.
    destruct (decode_same_class _ _ _ _ D) as (Es & Ee & Et). destruct (decode_next _ _ _ _ D) as [Hck Hj].
    assert (exists n0, n = S n0) as [n0 Hn0].
    { destruct Hst as [(-> & Hne & _) | (-> & _)]; [destruct w; [congruence | cbn; eauto] | eauto]. }
    subst n.
    destruct (ws c) eqn:Wc.
    + (* the run goes on *)
      rewrite (decode_ws_width _ _ _ _ D Wc). cbn [pred].
      assert (Hw' : Forall (fun x => ws x = true) (w ++ [c])) by (apply Forall_app; split; [exact Hw | repeat constructor; exact Wc]).
      assert (Hb : c :: rev w ++ before0 = rev (w ++ [c]) ++ before0) by (rewrite rev_app_distr; reflexivity).
      assert (Hs : w ++ c :: rest = (w ++ [c]) ++ rest) by (rewrite <- app_assoc; reflexivity).
      rewrite Hb, Hs, step_more by (rewrite Es, Ee, <- ws_split; exact Wc).
      apply IHB; [exact Hw'|].
      destruct Hst as [(E & Hne & -> & Hrel & Htb) | (E & -> & -> & -> & ->)].
      * left. repeat split; [rewrite app_length; cbn; lia | destruct w; discriminate | | exact Hrel | exact Htb].
        rewrite existsb_app. cbn [existsb]. rewrite orb_false_r, Ee. reflexivity.
      * right. repeat split. rewrite app_length. cbn. lia.
    + (* the run ends at a rune that is not white space *)
      pose proof Wc as Wc'. rewrite ws_split in Wc'. apply orb_false_iff in Wc'. destruct Wc' as [Wc1 Wc2].
      assert (HA : forall out', rt_loop ta (pred wd) (c :: rev w ++ before0) (mk_rt 0 false r cbt (c :: out') false) rest
                   = Ok (rev out' ++ c :: NFj tb ta (Some c) rest)).
      { intros out'. rewrite (IHA tb ta (pred wd) (c :: rev w ++ before0) false r cbt (c :: out') (Some c) Hck); [|intros _; split; [exact Et | discriminate]|exact Hj].
        cbn [rev]. rewrite <- app_assoc. reflexivity. }
      destruct Hst as [(E & Hne & -> & Hrel & Htb) | (E & -> & -> & -> & ->)].
      * rewrite (NF_ws_run is_tight_joiner tb ta prev w (c :: rest) Hne Hw Wc), (NF_nonws _ _ _ _ _ _ Wc).
        unfold ws_run_image. destruct (existsb line_break w).
        -- rewrite step_flush_join by congruence. rewrite HA. rewrite Et.
           destruct prev as [p|]; cbn in Hrel.
           ++ rewrite Hrel. destruct (is_tight_joiner p), (is_tight_joiner c); cbn; rewrite <- ?app_assoc; reflexivity.
           ++ rewrite Hrel. cbn. reflexivity.
        -- rewrite (step_flush_copy w before0 r c n0) by congruence. rewrite HA.
           replace (is_none prev && tb) with false
             by (destruct prev; [reflexivity | rewrite Htb; reflexivity]).
           cbn [is_none andb orb]. rewrite rev_app_distr, rev_involutive, <- app_assoc. reflexivity.
      * rewrite step_flush_join by congruence. rewrite HA. cbn.
        destruct w as [|x w].
        -- cbn [app]. rewrite (NF_nonws _ _ _ _ _ _ Wc). reflexivity.
        -- rewrite (NF_ws_run is_tight_joiner true ta None (x :: w) (c :: rest) ltac:(congruence) Hw Wc), (NF_nonws _ _ _ _ _ _ Wc).
           unfold ws_run_image. destruct (existsb line_break (x :: w)); reflexivity.
Qed.

(* ---------------------------------------------------------------------- *)
(* what the code computes, for every byte string: the rule with NUL as a
   third joiner (isTightJoiner lists 0 next to '<' and '>'), and it never
   indexes out of range                                                     *)

Theorem rawtext_run_general s tb ta :
  rawtext_run s tb ta = Ok (normalize_with is_tight_joiner tb ta s).
Proof.
  unfold rawtext_run, rt_init, normalize_with. destruct (rt_loop_inv s) as [HA HB]. destruct tb.
  - specialize (HB true ta [] [] 1%nat true 0 0 [] None). cbn [rev app] in HB. apply HB; [constructor|].
    right. repeat split.
  - specialize (HA false ta 0%nat [] false 0 0 [] None). cbn [rev app] in HA. apply HA.
    + split; [cbn; lia | constructor].
    + intros _. split; reflexivity.
    + congruence.
Qed.

Theorem rawtext_never_crashes s tb ta : exists o, rawtext_run s tb ta = Ok o.
Proof. eexists. apply rawtext_run_general. Qed.

(* ---------------------------------------------------------------------- *)
(* two joiner predicates that agree on the bytes of s give the same result *)

Section Agree.
Variables J1 J2 : N -> bool.

Definition prev_ok (prev : option N) : Prop := match prev with None => True | Some p => J1 p = J2 p end.

Lemma last_byte_ok run : forall prev, prev_ok prev -> (forall c, In c run -> J1 c = J2 c) -> prev_ok (last_byte prev run).
Proof.
  induction run as [|x run IH]; intros prev Hp H; [exact Hp|].
  cbn [last_byte]. apply IH; [apply H; left; reflexivity | intros c Hc; apply H; right; exact Hc].
Qed.

Lemma norm_runs_agree tb ta l : forall prev,
  prev_ok prev -> (forall c, In c (concat (map snd l)) -> J1 c = J2 c) ->
  norm_runs J1 tb ta prev l = norm_runs J2 tb ta prev l.
Proof.
  induction l as [|[k run] rest IH]; intros prev Hp H; [reflexivity|].
  cbn [map snd concat] in H.
  assert (Hrest : forall c, In c (concat (map snd rest)) -> J1 c = J2 c)
    by (intros c Hc; apply H, in_or_app; right; exact Hc).
  destruct k; cbn [norm_runs].
  - rewrite (IH prev Hp Hrest). f_equal.
    unfold ws_run_image. destruct (existsb line_break run); [|reflexivity].
    destruct prev as [p|]; [|reflexivity].
    destruct (first_byte rest) as [n|] eqn:F; [|reflexivity].
    assert (J1 n = J2 n) as ->.
    { apply Hrest. destruct rest as [|[k' [|x r']] rest']; try discriminate.
      injection F as ->. cbn. left. reflexivity. }
    cbn in Hp. rewrite Hp. reflexivity.
  - rewrite (IH (last_byte prev run)); [reflexivity | | exact Hrest].
    apply last_byte_ok; [exact Hp|]. intros c Hc. apply H, in_or_app. left. exact Hc.
Qed.

Lemma normalize_with_agree tb ta s :
  (forall c, In c s -> J1 c = J2 c) -> normalize_with J1 tb ta s = normalize_with J2 tb ta s.
Proof.
  intros H. unfold normalize_with. apply norm_runs_agree; [exact I|]. rewrite runs_concat. exact H.
Qed.
End Agree.

Lemma tight_angle c : c <> 0 -> is_tight_joiner c = angle c.
Proof. intros H. unfold is_tight_joiner, angle. replace (c =? 0) with false by (symmetry; apply N.eqb_neq; exact H). reflexivity. Qed.

(* ---------------------------------------------------------------------- *)
(* the property: on text without a NUL byte the code is the rule           *)

Definition no_nul (s : bstr) : Prop := Forall (fun c => c <> 0) s.

Theorem rawtext_run_spec s tb ta : no_nul s -> rawtext_run s tb ta = Ok (normalize tb ta s).
Proof.
  intros H. rewrite rawtext_run_general. f_equal. unfold normalize.
  apply normalize_with_agree. intros c Hc. apply tight_angle.
  unfold no_nul in H. rewrite Forall_forall in H. exact (H c Hc).
Qed.

Theorem rawtext_impl_spec s tb ta : no_nul s -> rawtext s tb ta = normalize tb ta s.
Proof. intros H. unfold rawtext. rewrite (rawtext_run_spec s tb ta H). reflexivity. Qed.

(* without the guard the statement is false of the code: a NUL next to a
   line break joins without a space *)
Lemma rawtext_nul_joins : rawtext [97; 0; 10; 98] false false = [97; 0; 98]
                          /\ normalize false false [97; 0; 10; 98] = [97; 0; 32; 98].
Proof. split; vm_compute; reflexivity. Qed.

(* ---------------------------------------------------------------------- *)
(* corollary: the bytes that are not white space come through intact and in
   order -- for every byte string, NUL or not                               *)

Lemma runs_tagged s : Forall (fun kr => Forall (fun x => ws x = fst kr) (snd kr)) (runs s).
Proof.
  induction s as [|c s IH]; [constructor|].
  cbn [runs]. destruct (runs s) as [|[k run] rest].
  - repeat constructor.
  - destruct (Bool.eqb k (ws c)) eqn:E.
    + apply Bool.eqb_prop in E. inversion IH as [|? ? H1 H2]; subst. constructor; [|exact H2].
      cbn [fst snd] in *. constructor; [reflexivity | exact H1].
    + constructor; [repeat constructor | exact IH].
Qed.

Lemma nonspace_app a c : nonspace (a ++ c) = nonspace a ++ nonspace c.
Proof. apply filter_app. Qed.

Lemma nonspace_all_ws run : Forall (fun x => ws x = true) run -> nonspace run = [].
Proof. induction 1 as [|x r Hx _ IH]; [reflexivity|]. cbn. rewrite Hx. exact IH. Qed.

Lemma nonspace_no_ws run : Forall (fun x => ws x = false) run -> nonspace run = run.
Proof. induction 1 as [|x r Hx _ IH]; [reflexivity|]. unfold nonspace in *. cbn [filter]. rewrite Hx. cbn [negb]. rewrite IH. reflexivity. Qed.

Lemma nonspace_image J tb ta prev next run :
  Forall (fun x => ws x = true) run -> nonspace (ws_run_image J tb ta prev next run) = [].
Proof.
  intros H. unfold ws_run_image. destruct (existsb line_break run).
  - destruct prev, next; try reflexivity. destruct (J n || J n0); reflexivity.
  - destruct (is_none prev && tb || is_none next && ta); [reflexivity | apply nonspace_all_ws, H].
Qed.

Lemma nonspace_norm_runs J tb ta l : forall prev,
  Forall (fun kr => Forall (fun x => ws x = fst kr) (snd kr)) l ->
  nonspace (norm_runs J tb ta prev l) = nonspace (concat (map snd l)).
Proof.
  induction l as [|[k run] rest IH]; intros prev H; [reflexivity|].
  inversion H as [|? ? H1 H2]; subst. cbn [fst snd] in H1.
  cbn [map snd concat]. rewrite nonspace_app. destruct k; cbn [norm_runs]; rewrite nonspace_app, IH by exact H2.
  - rewrite (nonspace_image J tb ta prev (first_byte rest) run H1), (nonspace_all_ws run H1). reflexivity.
  - reflexivity.
Qed.

Theorem normalize_with_nonspace J tb ta s : nonspace (normalize_with J tb ta s) = nonspace s.
Proof. unfold normalize_with. rewrite nonspace_norm_runs by apply runs_tagged. rewrite runs_concat. reflexivity. Qed.

Theorem normalize_nonspace tb ta s : nonspace (normalize tb ta s) = nonspace s.
Proof. apply normalize_with_nonspace. Qed.

Theorem nonspace_preserved s tb ta : nonspace (rawtext s tb ta) = nonspace s.
Proof. unfold rawtext. rewrite rawtext_run_general. apply normalize_with_nonspace. Qed.

(* readable consequences of the rule *)
Theorem normalize_no_ws tb ta s : Forall (fun x => ws x = false) s -> normalize tb ta s = s.
Proof.
  intros H. unfold normalize, normalize_with. generalize (@None N) as prev.
  induction H as [|c s Hc _ IH]; intros prev; [reflexivity|].
  change (NF angle tb ta prev (c :: s) = c :: s). rewrite NF_nonws by exact Hc. unfold NF. rewrite IH. reflexivity.
Qed.

(* interior white space without a line break is kept exactly; with a line
   break it becomes one space, or nothing next to < or > *)
Theorem normalize_interior tb ta x w y :
  ws x = false -> ws y = false -> w <> [] -> Forall (fun c => ws c = true) w ->
  normalize tb ta ([x] ++ w ++ [y]) =
  [x] ++ (if existsb line_break w then (if angle x || angle y then [] else [32]) else w) ++ [y].
Proof.
  intros Hx Hy Hne Hw. unfold normalize, normalize_with.
  change (NF angle tb ta None (x :: w ++ [y]) = [x] ++ (if existsb line_break w then if angle x || angle y then [] else [32] else w) ++ [y]).
  rewrite NF_nonws by exact Hx.
  rewrite (NF_ws_run angle tb ta (Some x) w [y] Hne Hw Hy).
  rewrite NF_nonws by exact Hy. rewrite NF_nil. unfold ws_run_image. cbn [is_none andb orb].
  destruct (existsb line_break w); reflexivity.
Qed.

Lemma cons_opt_inv x o pcs : cons_opt x o = Some pcs -> exists r, o = Some r /\ pcs = x :: r.
Proof. destruct o as [r|]; cbn [cons_opt]; intros H; [injection H as <-; eauto|discriminate]. Qed.
