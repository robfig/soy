(* C17 at command level: one big-step rule per procedure of Model/Parser.v that the
   round trip of template bodies goes through (itemList, textOrTag, beginTag,
   parseLet, parseIf, parseFor, {log}, {debugger}), proved from the model; parsePrint is
   Proofs/CmdRoundtripPrint.v.  A rule says: on ANY parser state that delivers the given items
   and whose inside-a-{msg} flag is m ({if} and {for}: m = false), the procedure returns
   the given tree and leaves the given items, for every large enough fuel. *)
From Soy Require Import Model.Bytes Model.Outcome Model.Ast Model.Token Model.RawText Model.ExprParser Model.Parser Generated.Tables
  Spec.ExprSyntax Spec.CmdSyntax Proofs.ExprParserRules Proofs.CmdRoundtripBase.
From Coq Require Import Lia.
Open Scope N_scope.

(* decide comparisons of closed item codes, membership in closed lists *)
Ltac dec_closed :=
  repeat match goal with
         | |- context [N.eqb ?a ?b] =>
             let v := eval vm_compute in (N.eqb a b) in
             match v with true => change (N.eqb a b) with true | false => change (N.eqb a b) with false end
         | |- context [one_of ?a ?l] =>
             let v := eval vm_compute in (one_of a l) in
             match v with true => change (one_of a l) with true | false => change (one_of a l) with false end
         | |- context [assoc ?a parser_special_chars] =>
             let v := eval vm_compute in (assoc a parser_special_chars) in
             match v with None => change (assoc a parser_special_chars) with (@None bstr) end
         end;
  cbn [orb andb negb].

Lemma typ_ne t c c' : t_typ t = c -> (c =? c') = false -> t_typ t <> c'.
Proof. intros <- H. apply N.eqb_neq, H. Qed.

(* the leaf loops of textOrTag and parseAttrs on the items that end them at once *)
Section Leaf.
Variables (inlen : N) (unq : bstr -> option bstr) (s : cst) (p : pst) (sc : list scanrec).

Lemma run_skip_comments t : t_typ t <> pit_Comment -> runs (eq p) (fun f _ => skip_comments f t (set_ps s p sc)) s t.
Proof.
  intros Ht. exists p, sc. split; [reflexivity|]. exists 1%nat. intros [|f] lf Hf _; [lia|].
  cbn [skip_comments]. rewrite (tis_ne t _ Ht). reflexivity.
Qed.

Lemma run_text_run txt nx l : t_typ nx <> pit_Text -> feeds p (nx :: l) ->
  runs (fun p1 => fed p1 nx l) (fun f _ => text_run f txt (set_ps s p sc)) s (txt, nx).
Proof.
  intros Hx H. apply runs_Sf. cbn [text_run]. run run_next as p1 H1. rewrite (tis_ne nx _ Hx). apply runs_ret, H1.
Qed.

(* the end of the attributes: "}" or "/}" is read and pushed back *)
Lemma run_attrs_end allowed acc t l : (t_typ t = pit_RightDelim \/ t_typ t = pit_RightDelimEnd) -> feeds p (t :: l) ->
  runs (fun p' => feeds p' (t :: l)) (fun f _ => attrs_loop inlen unq f allowed acc (set_ps s p sc)) s acc.
Proof.
  intros Ht H. apply runs_Sf. cbn [attrs_loop]. run run_next as p1 (_ & H1 & _).
  assert (E : tis t pit_Ident = false /\ tis t pit_RightDelim || tis t pit_RightDelimEnd = true).
  { destruct Ht as [Ht|Ht]; rewrite !(tis_typ t _ _ Ht); vm_compute; auto. }
  destruct E as [E1 E2]. rewrite E1, E2, c_backup_set_ps. apply runs_ret, H1.
Qed.

(* one attribute name="value", then the rest of the attributes *)
Lemma run_attrs_one Q allowed acc id eq str v l a :
  t_typ id = pit_Ident -> existsb (bstr_eqb (t_val id)) allowed = true ->
  t_typ eq = pit_Equals -> t_typ str = pit_String -> unq (t_val str) = Some v ->
  feeds p (id :: eq :: str :: l) ->
  (forall p3 sc3, fed p3 str l -> runs Q (fun f _ => attrs_loop inlen unq f allowed ((t_val id, v) :: acc) (set_ps s p3 sc3)) s a) ->
  runs Q (fun f _ => attrs_loop inlen unq f allowed acc (set_ps s p sc)) s a.
Proof.
  intros Hid Hal Heq Hstr Hu H HK. apply runs_Sf. cbn [attrs_loop].
  run run_next as p1 [H1 _]. rewrite (tis_eq id _ Hid), Hal. cbn [negb].
  run (run_expect Heq) as p2 [H2 _]. run (run_expect Hstr) as p3 H3. rewrite Hu. apply HK, H3.
Qed.
End Leaf.
Arguments run_skip_comments {s p sc t}.
Arguments run_text_run {s p sc txt nx l}.
Arguments run_attrs_end {inlen unq s p sc allowed acc t l}.
Arguments run_attrs_one {inlen unq s p sc Q allowed acc}.

(* a rule for a command (the goal is a [Tag]): beginTag reads the command's first item, whose type
   Hk gives, and dispatches on it *)
Ltac tag_start Hk s p sc p1 H1 Hm :=
  apply CRun_Run; intros s p sc ? Hm; unfold begin_tag; run run_next as p1 [H1 _];
  rewrite !(tis_typ _ _ _ Hk); dec_closed.
(* the commands that are refused inside a {msg} *)
Ltac not_in_msg Hm := unfold notmsg; rewrite c_inmsg_set_ps, (proj1 Hm).

Section Rules.
Variable ns : bstr.
Variable al : list (bstr * bstr).
Variable inlen : N.
Variable lexq : bstr -> list tok.
Variable unq : bstr -> option bstr.
Variable efuel : list tok -> nat.

Notation PE g := (lift_expr inlen parse_expr g).
Notation IL g := (item_list inlen lexq unq parse_expr efuel g).
Notation LOOP g k := (item_list_loop inlen lexq unq parse_expr efuel (PE g) (IL g) g k).
Notation BT g := (begin_tag inlen lexq unq parse_expr efuel (PE g) (IL g) g).
Notation CRun := (CRun ns al).
Notation Run := (Run ns al).

(* a body: returns n having consumed "{" and the until item u; backing up re-delivers u *)
Definition Body (m : bool) (until : list N) (ts : list tok) (n : node) (u : tok) (rest : list tok) : Prop :=
  Run m (fun p => fed p u rest) (fun g _ s => IL g until s) ts n.
Definition Loop (m : bool) (Q : pst -> Prop) (until : list N) (pos : option N) (acc : list node) (ts : list tok) (n : node) : Prop :=
  Run m Q (fun g k s => LOOP g k until pos acc s) ts n.
Definition Tag (m : bool) (ts : list tok) (n : node) (rest : list tok) : Prop :=
  CRun m (fun g _ s => BT g s) ts (Some n) rest.

Lemma Tag_Run m ts n rest : Tag m ts n rest <-> Run m (fun p => feeds p rest) (fun g _ s => BT g s) ts (Some n).
Proof. apply CRun_Run. Qed.

Lemma IL_S g until s : IL (S g) until s = LOOP g (S g) until None [] s.
Proof. reflexivity. Qed.

Lemma loop_S g k until pos acc s : LOOP g (S k) until pos acc s =
  cbind (c_next s) (fun token s1 =>
    let pos1 := match pos with Some p => p | None => t_pos token end in
    cbind (text_or_tag inlen lexq unq parse_expr efuel (PE g) (IL g) g token until s1) (fun r s2 =>
      if snd r then COk (NList pos1 acc) s2
      else LOOP g k until (Some pos1) (match fst r with Some n => acc ++ [n] | None => acc end) s2)).
Proof. reflexivity. Qed.

Lemma IL_of_Loop m Q until ts n : Loop m Q until None [] ts n -> Run m Q (fun g _ s => IL g until s) ts n.
Proof.
  intros H s p sc H0 Hm. destruct (H s p sc H0 Hm) as (p' & sc' & H' & f0 & HF).
  exists p', sc'. split; [exact H'|]. exists (S f0). intros [|f] lf Hf _; [lia|]. rewrite IL_S. apply HF; lia.
Qed.

Definition pos_or (pos : option N) (t : tok) : N := match pos with Some p => p | None => t_pos t end.

Lemma Loop_halt m until pos acc t u rest :
  t_typ t = pit_LeftDelim -> one_of pit_LeftDelim until = false -> one_of (t_typ u) until = true ->
  Loop m (fun p => fed p u rest) until pos acc (t :: u :: rest) (NList (pos_or pos t) acc).
Proof.
  intros Ht Hu1 Hu2 s p sc H0 Hm. apply runs_Slf. cbn [item_list_loop].
  run run_next as p1 [H1 _]. unfold text_or_tag.
  run (run_skip_comments (typ_ne _ _ pit_Comment Ht eq_refl)) as ? <-. rewrite Ht, Hu1.
  run run_next as p2 H2. rewrite (tis_eq t _ Ht), Hu2. apply runs_ret, H2.
Qed.

Lemma Loop_text m Q until pos acc t nx l tv n :
  t_typ t = pit_Text -> one_of pit_Text until = false ->
  t_typ nx <> pit_Text -> t_typ nx <> pit_Comment ->
  rawtext_run (t_val t) false false = Ok tv -> tv <> [] ->
  Loop m Q until (Some (pos_or pos t)) (acc ++ [NRawText (t_pos t) tv]) (nx :: l) n ->
  Loop m Q until pos acc (t :: nx :: l) n.
Proof.
  intros Ht Hu Hx1 Hx2 Hr Hne HL s p sc H0 Hm. apply runs_Slf. cbn [item_list_loop].
  run run_next as p1 [H1 _]. unfold text_or_tag.
  assert (Hc : t_typ t <> pit_Comment) by exact (typ_ne _ _ pit_Comment Ht eq_refl).
  run (run_skip_comments Hc) as ? <-. rewrite Ht, Hu.
  run run_next as p2 (_ & H2 & _).
  rewrite (tis_ne t _ (typ_ne _ _ pit_LeftDelim Ht eq_refl)), (tis_eq t _ Ht), (tis_ne t _ Hc), c_backup_set_ps. cbn [andb].
  run (run_text_run Hx1) as p3 (_ & H3 & _). cbn [fst snd]. rewrite (tis_ne nx _ Hx2), Hr, c_backup_set_ps.
  destruct tv as [|c tv]; [contradiction Hne; reflexivity|]. cbn [cbind fst snd]. apply HL; assumption.
Qed.

Lemma Loop_tag m Q until pos acc t k l c l2 n :
  t_typ t = pit_LeftDelim -> one_of pit_LeftDelim until = false -> one_of (t_typ k) until = false ->
  Tag m (k :: l) c l2 ->
  Loop m Q until (Some (pos_or pos t)) (acc ++ [c]) l2 n ->
  Loop m Q until pos acc (t :: k :: l) n.
Proof.
  intros Ht Hu1 Hu2 HT HL s p sc H0 Hm. apply Tag_Run in HT. apply runs_Slf. cbn [item_list_loop].
  run run_next as p1 [H1 _]. unfold text_or_tag.
  run (run_skip_comments (typ_ne _ _ pit_Comment Ht eq_refl)) as ? <-. rewrite !(tis_typ t _ _ Ht), Ht, Hu1. dec_closed.
  run run_next as p2 (_ & H2 & _). rewrite Hu2, c_backup_set_ps.
  run HT as p3 H3. cbn [cbind fst snd]. apply HL; assumption.
Qed.

Lemma runs_some Q (r : nat -> nat -> cres node) s n :
  runs Q r s n -> runs Q (fun f lf => cbind (r f lf) (fun n0 s' => COk (Some n0) s')) s (Some n).
Proof.
  intros H. refine (runs_bind Q Q r (fun n0 s' _ _ => COk (Some n0) s') s s n (Some n) H _).
  intros p1 sc1 H1. apply runs_ret, H1.
Qed.

Lemma Tag_debugger m k rd l : t_typ k = pit_Debugger -> t_typ rd = pit_RightDelim ->
  Tag m (k :: rd :: l) (NDebugger (t_pos k)) l.
Proof.
  intros Hk Hrd. tag_start Hk s p sc p1 H1 Hm.
  run (run_expect Hrd) as p2 [H2 _]. apply runs_ret, H2.
Qed.

Lemma Tag_log m k rd l body u rd2 l2 : t_typ k = pit_Log -> t_typ rd = pit_RightDelim -> t_typ rd2 = pit_RightDelim ->
  Body m u_log l body u (rd2 :: l2) ->
  Tag m (k :: rd :: l) (NLog (t_pos k) body) l2.
Proof.
  intros Hk Hrd Hrd2 HB. tag_start Hk s p sc p1 H1 Hm.
  run (run_expect Hrd) as p2 [H2 _]. run HB as p3 [H3 _]. run (run_expect Hrd2) as p4 [H4 _]. apply runs_ret, H4.
Qed.

Lemma Tag_let_value m k d colon l c name e rde l2 :
  t_typ k = pit_Let -> t_typ d = pit_DollarIdent -> t_val d = c :: name -> t_typ colon = pit_Colon ->
  t_typ rde = pit_RightDelimEnd ->
  Parses 0 l e (rde :: l2) ->
  Tag m (k :: d :: colon :: l) (NLetValue (t_pos k) name e) l2.
Proof.
  intros Hk Hd Hv Hc Hrde HP. tag_start Hk s p sc p1 H1 Hm. apply runs_some. unfold parse_let.
  run (run_expect Hd) as p2 [H2 _]. run run_peek as p3 H3. rewrite (tis_eq colon _ Hc).
  run run_next as p4 [H4 _]. run (run_expr HP) as p5 H5. unfold tail1. rewrite Hv. cbn [cbind].
  run (run_expect Hrde) as p6 [H6 _]. apply runs_ret, H6.
Qed.

(* {let $x}...{/let}: String() does not print the kind attribute, so the attribute list is empty *)
Lemma Tag_let_content m k d rd l c name body u rd2 l2 :
  t_typ k = pit_Let -> t_typ d = pit_DollarIdent -> t_val d = c :: name -> t_typ rd = pit_RightDelim ->
  t_typ rd2 = pit_RightDelim ->
  Body m u_let l body u (rd2 :: l2) ->
  Tag m (k :: d :: rd :: l) (NLetContent (t_pos k) name body) l2.
Proof.
  intros Hk Hd Hv Hrd Hrd2 HB. tag_start Hk s p sc p1 H1 Hm. apply runs_some. unfold parse_let.
  run (run_expect Hd) as p2 [H2 _]. run run_peek as p3 H3. rewrite (tis_ne rd _ (typ_ne _ _ pit_Colon Hrd eq_refl)).
  run (run_attrs_end (or_introl Hrd)) as p4 H4. run run_next as p5 [H5 _]. rewrite (tis_eq rd _ Hrd).
  run HB as p6 [H6 _]. unfold tail1. rewrite Hv. cbn [cbind].
  run (run_expect Hrd2) as p7 [H7 _]. apply runs_ret, H7.
Qed.

Definition IfLoop (pos : N) (conds : list node) (is_else : bool) (ts : list tok) (n : node) (rest : list tok) : Prop :=
  Run false (fun p => feeds p rest) (fun g k s => if_loop inlen (PE g) (IL g) k pos conds is_else s) ts n.

(* what follows a condition's body: the until item u decides *)
Definition IfCont (pos : N) (conds1 : list node) (is_else : bool) (u : tok) (l2 : list tok) (n : node) (rest : list tok) : Prop :=
  (t_typ u = pit_Elseif /\ IfLoop pos conds1 is_else l2 n rest) \/
  (t_typ u = pit_Else /\ IfLoop pos conds1 true l2 n rest) \/
  (t_typ u = pit_IfEnd /\ exists rd2, t_typ rd2 = pit_RightDelim /\ l2 = rd2 :: rest /\ n = NIf pos conds1).

(* one condition, from the "}" that ends its head *)
Lemma if_body pos conds cond is_else rd l1 x u l2 n rest s p sc :
  t_typ rd = pit_RightDelim -> Body false u_if l1 x u l2 ->
  IfCont pos (conds ++ [NIfCond pos cond x]) is_else u l2 n rest ->
  feeds p (rd :: l1) -> base_ok ns al false s ->
  runs (fun p' => feeds p' rest)
    (fun g k => cbind (c_expect inlen pit_RightDelim x_if (set_ps s p sc)) (fun _ s2 =>
       cbind (IL g u_if s2) (fun body s3 =>
         cbind (c_next (c_backup s3)) (fun nx s4 =>
           if tis nx pit_Elseif then if_loop inlen (PE g) (IL g) k pos (conds ++ [NIfCond pos cond body]) is_else s4
           else if tis nx pit_Else then if_loop inlen (PE g) (IL g) k pos (conds ++ [NIfCond pos cond body]) true s4
           else if tis nx pit_IfEnd then
             cbind (c_expect inlen pit_RightDelim x_if s4) (fun _ s5 => COk (NIf pos (conds ++ [NIfCond pos cond body])) s5)
           else if_loop inlen (PE g) (IL g) k pos (conds ++ [NIfCond pos cond body]) is_else s4)))) s n.
Proof.
  intros Hrd HB HC H0 Hm. run (run_expect Hrd) as p2 [H2 _]. run HB as p3 (_ & H3 & _). rewrite c_backup_set_ps.
  run run_next as p4 [H4 _].
  destruct HC as [[Hu HL]|[[Hu HL]|[Hu (rd2 & Hrd2 & -> & ->)]]].
  - rewrite (tis_eq u _ Hu). apply HL; assumption.
  - rewrite (tis_ne u _ (typ_ne _ _ pit_Elseif Hu eq_refl)), (tis_eq u _ Hu). apply HL; assumption.
  - rewrite (tis_ne u _ (typ_ne _ _ pit_Elseif Hu eq_refl)), (tis_ne u _ (typ_ne _ _ pit_Else Hu eq_refl)), (tis_eq u _ Hu).
    run (run_expect Hrd2) as p5 [H5 _]. apply runs_ret, H5.
Qed.

Lemma IfLoop_cond pos conds ts c rd l1 x u l2 n rest :
  Parses 0 ts c (rd :: l1) -> t_typ rd = pit_RightDelim ->
  Body false u_if l1 x u l2 ->
  IfCont pos (conds ++ [NIfCond pos (Some c) x]) false u l2 n rest ->
  IfLoop pos conds false ts n rest.
Proof.
  intros HP Hrd HB HC s p sc H0 Hm. apply runs_Slf. cbn [if_loop].
  run (run_expr HP) as p1 H1. cbn [cbind]. eapply if_body; eassumption.
Qed.

Lemma IfLoop_else pos conds rd l1 x u l2 n rest :
  t_typ rd = pit_RightDelim ->
  Body false u_if l1 x u l2 ->
  IfCont pos (conds ++ [NIfCond pos None x]) true u l2 n rest ->
  IfLoop pos conds true (rd :: l1) n rest.
Proof.
  intros Hrd HB HC s p sc H0 Hm. apply runs_Slf. cbn [if_loop cbind]. eapply if_body; eassumption.
Qed.

Lemma Tag_if k l n rest : t_typ k = pit_If -> IfLoop (t_pos k) [] false l n rest -> Tag false (k :: l) n rest.
Proof.
  intros Hk HL. tag_start Hk s p sc p1 H1 Hm. not_in_msg Hm. apply runs_some. apply (Run_diag HL); assumption.
Qed.

Lemma Tag_for k d i l c var lst rd l1 x u l2 n rest :
  t_typ k = pit_For -> t_typ d = pit_DollarIdent -> t_val d = c :: var ->
  t_typ i = pit_Ident -> t_val i = k_in ->
  Parses 0 l lst (rd :: l1) -> t_typ rd = pit_RightDelim ->
  Body false u_for l1 x u l2 ->
  ((t_typ u = pit_Ifempty /\ exists rd2 l3 y u2 rd3, t_typ rd2 = pit_RightDelim /\ l2 = rd2 :: l3 /\
        Body false u_ifempty l3 y u2 (rd3 :: rest) /\ t_typ rd3 = pit_RightDelim /\ n = NFor (t_pos k) var lst x (Some y)) \/
   (t_typ u <> pit_Ifempty /\ exists rd2, t_typ rd2 = pit_RightDelim /\ l2 = rd2 :: rest /\ n = NFor (t_pos k) var lst x None)) ->
  Tag false (k :: d :: i :: l) n rest.
Proof.
  intros Hk Hd Hv Hi_ Hiv HP Hrd HB HC. tag_start Hk s p sc p1 H1 Hm. not_in_msg Hm. apply runs_some. unfold parse_for.
  run (run_expect Hd) as p2 [H2 _]. run (run_expect Hi_) as p3 [H3 _].
  rewrite Hiv. change (bstr_eqb k_in k_in) with true. cbn [negb].
  run (run_expr HP) as p4 H4. run (run_expect Hrd) as p5 [H5 _]. run HB as p6 (_ & H6 & _). rewrite c_backup_set_ps.
  run run_next as p7 [H7 _]. unfold tail1.
  destruct HC as [(Hu & rd2 & l3 & y & u2 & rd3 & Hrd2 & -> & HB2 & Hrd3 & ->)|(Hu & rd2 & Hrd2 & -> & ->)].
  - rewrite (tis_eq u _ Hu). run (run_expect Hrd2) as p8 [H8 _]. run HB2 as p9 [H9 _]. cbn [cbind].
    run (run_expect Hrd3) as p10 [H10 _]. rewrite Hv. apply runs_ret, H10.
  - rewrite (tis_ne u _ Hu). cbn [cbind]. run (run_expect Hrd2) as p8 [H8 _]. rewrite Hv. apply runs_ret, H8.
Qed.
End Rules.
