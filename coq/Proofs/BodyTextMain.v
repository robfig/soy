(* C15, template level: scanner model and parser model composed on a file that is one stretch of template
   text without braces (raw text and comments).  lex(T) then parse.SoyFile's itemList give raw-text nodes
   whose concatenated text is the Spec's body_text of T. *)
From Soy Require Import Model.Bytes Model.Outcome Model.Ast Model.Token Model.Parser Model.Lexer Generated.Tables Spec.Text Spec.TextBody
  Spec.TextMix Proofs.LexTokens Proofs.LexBodyText Proofs.LexBodyTop Proofs.ParseBodyText Proofs.BodyMixMain.
From Coq Require Import ZifyBool Lia.
Open Scope N_scope.

Lemma plain_forallb s : forallb (fun c => negb (c =? 0) && negb (c =? 123) && negb (c =? 125)) s = true -> plain s.
Proof. intros H. apply Forall_forall. intros c Hc. rewrite forallb_forall in H. specialize (H c Hc). lia. Qed.

Section Main.
Variable uni_letter uni_digit : Z -> bool.
Hypothesis letter_ascii : forall c, (c < 128)%N -> uni_letter (Z.of_N c) = ((65 <=? c) && (c <=? 90) || (97 <=? c) && (c <=? 122))%N.
Hypothesis digit_ascii : forall c, (c < 128)%N -> uni_digit (Z.of_N c) = digit_b c.
Hypothesis letter_eof : uni_letter (-1)%Z = false.
Hypothesis digit_eof : uni_digit (-1)%Z = false.
Variable inlen : N.
Variable lexq : bstr -> list tok.
Variable unq : bstr -> option bstr.

(* body_text_spec: for every text T of plain bytes (no NUL, no brace) that the Spec accepts -- every block comment
   closed, no soydoc opener -- lexing T as a file and parsing the items gives a list of raw-text nodes whose
   texts, concatenated, are body_text true T ([true]: T begins at the very start of the input): the body without
   tags of body_mix_impl_spec *)
Theorem body_text_impl_spec T out : plain T -> body_text true T = Some out ->
  exists items pos nodes st,
    lex_items uni_letter uni_digit (lex_budget T) false T = Ok items /\
    po_result (soy_file inlen lexq unq items) = POk (NList pos nodes) st /\
    Forall is_raw nodes /\ concat (map raw_text_of nodes) = out.
Proof.
  intros Hpl Hb.
  assert (Hok : mix_body_ok T []) by (split; [split; [exact Hpl|discriminate]|exact I]).
  assert (Hout : mix_body_out T [] = Some out) by (unfold mix_body_out; rewrite Hb; cbn; rewrite app_nil_r; reflexivity).
  pose proof (body_mix_impl_spec uni_letter uni_digit letter_ascii digit_ascii letter_eof digit_eof inlen lexq unq T [] out Hok Hout) as H.
  unfold body_src in H. cbn [rest_src] in H. rewrite app_nil_r in H. exact H.
Qed.

(* "http://x is not a comment": where the Spec finds no comment in T (every "//" of T follows a byte that is not
   white space, and T has no "/*"), the scanner sends T as ONE text item (none if T is empty or only white
   space with a line break) followed by EOF *)
Theorem no_comment_one_item T : plain T -> pieces MText true [] T = Some [T] ->
  exists items e, lex_items uni_letter uni_digit (lex_budget T) false T = Ok items /\ t_typ e = itemEOF /\
    (if droppable T then items = [e]
     else exists p, items = [{| t_typ := itemText; t_pos := p; t_val := T |}; e]).
Proof.
  intros Hpl Hp. destruct (lex_body_items uni_letter uni_digit letter_eof digit_eof T [T] Hpl Hp) as (items & Hlex & Hsh).
  inversion Hsh as [x txt e Htx He|x x' txt c rest items' Htx Hx Hc Hsh']; subst; [|inversion Hsh'].
  exists (txt ++ [e]), e. split; [exact Hlex|]. split; [exact He|].
  unfold is_text_of in Htx. destruct (droppable T); [subst txt; reflexivity|]. destruct Htx as (p & ->). exists p. reflexivity.
Qed.

End Main.

(* the Spec side of the clause: "//" after a byte that is not white space (and not itself '/') is text *)
Lemma slashes_after_nonspace pw cur c v : ws c = false -> c <> 47 ->
  pieces MText pw cur (c :: 47 :: 47 :: v) = pieces MText false (47 :: c :: cur) (47 :: v).
Proof.
  intros Hw Hc. cbn [pieces]. assert (E : (c =? 47) = false) by lia. rewrite E, Hw.
  change (47 =? 47) with true. change (47 =? 42) with false. cbn [andb]. reflexivity.
Qed.
