(* The parser models touch the item list only through [Token.recv]: framework and primitives.

   [ro_pext e p] is the state [p] with [e] appended to the items not yet received.  A procedure [P] is
   "locked" when its runs from [p] and from [ro_pext e p] agree -- same result, final state extended by
   [e] -- as soon as ONE of the two runs made no more receives than [p] had items ([ro_within], measured
   against the short state [p] for both runs).  Together with monotonicity of the receive counter and of
   p_recv + |p_rest| this composes through [pbind]/[cbind] ([ro_lock_bind], [ro_lockc_bind]); the primitives
   of Model/Token.v and of Model/Parser.v satisfy it.  Proofs/RecvOnlyExpr.v and Proofs/RecvOnlyCmd.v walk
   the procedures.

   The relation also carries the zero-padding reading of a receive from the closed channel: when the extension
   consists of zero items ([ro_zeros j]) and one of the two runs made no more receives than |p_rest p| + j, the
   long run is the short run with some zero items left over (a receive on the empty list IS a receive of a zero
   item). *)
From Soy Require Import Model.Bytes Model.Ast Model.Token Model.ExprParser Model.Parser Generated.Tables.
From Coq Require Import Lia.
Open Scope N_scope.

Definition ro_pext (e : list tok) (p : pst) : pst :=
  {| p_rest := p_rest p ++ e; p_tok0 := p_tok0 p; p_tok1 := p_tok1 p; p_peek := p_peek p; p_recv := p_recv p |}.
Definition ro_cext (e : list tok) (s : cst) : cst := set_p s (ro_pext e (c_p s)).

Definition ro_rext {A} (e : list tok) (r : presult A) : presult A :=
  match r with
  | POk a q => POk a (ro_pext e q)
  | PErr t c q => PErr t c (ro_pext e q)
  | PCrash m => PCrash m
  | PFuel => PFuel
  end.
Definition ro_crext {A} (e : list tok) (r : cres A) : cres A :=
  match r with
  | COk a q => COk a (ro_cext e q)
  | CErr t c q => CErr t c (ro_cext e q)
  | CCrash m => CCrash m
  | CFuel => CFuel
  end.

(* the token state a run ends in *)
Definition ro_fin {A} (r : presult A) : option pst :=
  match r with POk _ q => Some q | PErr _ _ q => Some q | _ => None end.
Definition ro_cfin {A} (r : cres A) : option pst :=
  match r with COk _ q => Some (c_p q) | CErr _ _ q => Some (c_p q) | _ => None end.

Definition ro_avail (p : pst) : nat := (p_recv p + length (p_rest p))%nat.
Definition ro_mono (p : pst) (o : option pst) : Prop :=
  match o with Some q => (p_recv p <= p_recv q)%nat /\ (ro_avail p <= ro_avail q)%nat | None => True end.
(* the run made no more receives than [p] had items: every receive was served from [p_rest p] *)
Definition ro_within (p : pst) (o : option pst) : Prop :=
  match o with Some q => (p_recv q <= ro_avail p)%nat | None => False end.

Definition ro_zeros (j : nat) : list tok := repeat zero_tok j.

Definition ro_lock {A} (e : list tok) (p : pst) (r r' : presult A) : Prop :=
  ro_mono p (ro_fin r) /\ ro_mono (ro_pext e p) (ro_fin r') /\
  (ro_within p (ro_fin r) \/ ro_within p (ro_fin r') -> r' = ro_rext e r) /\
  (forall j, e = ro_zeros j -> ro_within (ro_pext e p) (ro_fin r) \/ ro_within (ro_pext e p) (ro_fin r') ->
     exists j', r' = ro_rext (ro_zeros j') r).
Definition ro_lockc {A} (e : list tok) (s : cst) (r r' : cres A) : Prop :=
  ro_mono (c_p s) (ro_cfin r) /\ ro_mono (ro_pext e (c_p s)) (ro_cfin r') /\
  (ro_within (c_p s) (ro_cfin r) \/ ro_within (c_p s) (ro_cfin r') -> r' = ro_crext e r) /\
  (forall j, e = ro_zeros j -> ro_within (ro_pext e (c_p s)) (ro_cfin r) \/ ro_within (ro_pext e (c_p s)) (ro_cfin r') ->
     exists j', r' = ro_crext (ro_zeros j') r).

Definition ro_lockP {A} (P : pst -> presult A) : Prop := forall p e, ro_lock e p (P p) (P (ro_pext e p)).
Definition ro_lockC {A} (P : cst -> cres A) : Prop := forall s e, ro_lockc e s (P s) (P (ro_cext e s)).

Lemma ro_pext_nil p : ro_pext [] p = p.
Proof. destruct p; unfold ro_pext; cbn. rewrite app_nil_r. reflexivity. Qed.
Lemma ro_cext_nil s : ro_cext [] s = s.
Proof. destruct s; unfold ro_cext, set_p; cbn. rewrite ro_pext_nil. reflexivity. Qed.

Lemma ro_avail_pext e p : ro_avail (ro_pext e p) = (ro_avail p + length e)%nat.
Proof. unfold ro_avail, ro_pext; cbn. rewrite app_length. lia. Qed.

Lemma ro_mono_trans p q o : ro_mono p (Some q) -> ro_mono q o -> ro_mono p o.
Proof. destruct o as [qf|]; cbn; [lia|trivial]. Qed.
Lemma ro_within_pre p q o : ro_mono q o -> ro_within p o -> ro_within p (Some q).
Proof. destruct o as [qf|]; cbn; [lia|tauto]. Qed.
Lemma ro_within_post p q o : ro_mono p (Some q) -> ro_within p o -> ro_within q o.
Proof. destruct o as [qf|]; cbn; [lia|tauto]. Qed.
Lemma ro_mono_refl p : ro_mono p (Some p).
Proof. cbn. lia. Qed.

Lemma ro_lock_bind {A B} e p (X X' : presult A) (k k' : A -> pst -> presult B) :
  ro_lock e p X X' -> (forall a q e1, ro_lock e1 q (k a q) (k' a (ro_pext e1 q))) ->
  ro_lock e p (pbind X k) (pbind X' k').
Proof.
  intros (M & M' & W & P) Hk.
  assert (Hmk : forall a q, ro_mono q (ro_fin (k a q))) by (intros a q; apply (Hk a q [])).
  assert (Hmk' : forall a q, ro_mono q (ro_fin (k' a q))).
  { intros a q. pose proof (Hk a q []) as (_ & H & _). rewrite ro_pext_nil in H. exact H. }
  (* a bound on the receives of the whole run bounds those of its first part *)
  assert (Hpre : forall p0, ro_within p0 (ro_fin (pbind X k)) \/ ro_within p0 (ro_fin (pbind X' k')) ->
                            ro_within p0 (ro_fin X) \/ ro_within p0 (ro_fin X')).
  { intros p0 [Wn|Wn]; [left; destruct X|right; destruct X']; cbn [pbind] in Wn; try exact Wn;
      (eapply ro_within_pre; [|exact Wn]); first [apply Hmk|apply Hmk']. }
  split; [|split; [|split]].
  - destruct X as [a q|t c q|m|]; cbn [pbind]; try exact M. eapply ro_mono_trans; [exact M|apply Hmk].
  - destruct X' as [a q|t c q|m|]; cbn [pbind]; try exact M'. eapply ro_mono_trans; [exact M'|apply Hmk'].
  - intros Wn. pose proof (W (Hpre p Wn)) as E. subst X'.
    destruct X as [a q|t c q|m|]; cbn [ro_rext pbind ro_fin] in *; try reflexivity.
    apply (Hk a q e). destruct Wn as [Wn|Wn]; [left|right]; (eapply ro_within_post; [exact M|exact Wn]).
  - intros j Ej Wn. destruct (P j Ej (Hpre _ Wn)) as (j1 & E). subst X'.
    destruct X as [a q|t c q|m|]; cbn [ro_rext pbind ro_fin] in *; try (exists j1; reflexivity).
    apply (Hk a q (ro_zeros j1)) with (j := j1); [reflexivity|].
    destruct Wn as [Wn|Wn]; [left|right]; (eapply ro_within_post; [exact M'|exact Wn]).
Qed.

Lemma ro_lockc_bind {A B} e s (X X' : cres A) (k k' : A -> cst -> cres B) :
  ro_lockc e s X X' -> (forall a q e1, ro_lockc e1 q (k a q) (k' a (ro_cext e1 q))) ->
  ro_lockc e s (cbind X k) (cbind X' k').
Proof.
  intros (M & M' & W & P) Hk.
  assert (Hmk : forall a q, ro_mono (c_p q) (ro_cfin (k a q))) by (intros a q; apply (Hk a q [])).
  assert (Hmk' : forall a q, ro_mono (c_p q) (ro_cfin (k' a q))).
  { intros a q. pose proof (Hk a q []) as (_ & H & _). rewrite ro_cext_nil, ro_pext_nil in H. exact H. }
  assert (Hpre : forall p0, ro_within p0 (ro_cfin (cbind X k)) \/ ro_within p0 (ro_cfin (cbind X' k')) ->
                            ro_within p0 (ro_cfin X) \/ ro_within p0 (ro_cfin X')).
  { intros p0 [Wn|Wn]; [left; destruct X|right; destruct X']; cbn [cbind] in Wn; try exact Wn;
      (eapply ro_within_pre; [|exact Wn]); first [apply Hmk|apply Hmk']. }
  split; [|split; [|split]].
  - destruct X as [a q|t c q|m|]; cbn [cbind]; try exact M. eapply ro_mono_trans; [exact M|apply Hmk].
  - destruct X' as [a q|t c q|m|]; cbn [cbind]; try exact M'. eapply ro_mono_trans; [exact M'|apply Hmk'].
  - intros Wn. pose proof (W (Hpre (c_p s) Wn)) as E. subst X'.
    destruct X as [a q|t c q|m|]; cbn [ro_crext cbind ro_cfin] in *; try reflexivity.
    apply (Hk a q e). destruct Wn as [Wn|Wn]; [left|right]; (eapply ro_within_post; [exact M|exact Wn]).
  - intros j Ej Wn. destruct (P j Ej (Hpre _ Wn)) as (j1 & E). subst X'.
    destruct X as [a q|t c q|m|]; cbn [ro_crext cbind ro_cfin] in *; try (exists j1; reflexivity).
    apply (Hk a q (ro_zeros j1)) with (j := j1); [reflexivity|].
    destruct Wn as [Wn|Wn]; [left|right]; (eapply ro_within_post; [exact M'|exact Wn]).
Qed.

Lemma ro_mono_rext {A} e p (r : presult A) : ro_mono p (ro_fin r) -> ro_mono (ro_pext e p) (ro_fin (ro_rext e r)).
Proof.
  destruct r as [a q|t c q|m|]; cbn [ro_rext ro_fin ro_mono]; trivial; rewrite !ro_avail_pext; cbn [ro_pext p_recv]; lia.
Qed.
Lemma ro_mono_crext {A} e p (r : cres A) : ro_mono p (ro_cfin r) -> ro_mono (ro_pext e p) (ro_cfin (ro_crext e r)).
Proof.
  destruct r as [a q|t c q|m|]; cbn [ro_crext ro_cfin ro_mono]; trivial;
    change (c_p (ro_cext e q)) with (ro_pext e (c_p q)); rewrite !ro_avail_pext; cbn [ro_pext p_recv]; lia.
Qed.
Lemma ro_lock_eq {A} e p (r r' : presult A) : r' = ro_rext e r -> ro_mono p (ro_fin r) -> ro_lock e p r r'.
Proof.
  intros -> M. split; [exact M|split; [apply ro_mono_rext; exact M|split; [reflexivity|]]].
  intros j -> _. exists j. reflexivity.
Qed.
Lemma ro_lockc_eq {A} e s (r r' : cres A) : r' = ro_crext e r -> ro_mono (c_p s) (ro_cfin r) -> ro_lockc e s r r'.
Proof.
  intros -> M. split; [exact M|split; [apply ro_mono_crext; exact M|split; [reflexivity|]]].
  intros j -> _. exists j. reflexivity.
Qed.

Definition ro_ok {A} (x : A * pst) : presult A := POk (fst x) (snd x).

(* a procedure that neither receives nor fails: the same result on both sides, the counters by lia *)
Ltac ro_pure := solve [apply ro_lock_eq; [reflexivity|unfold ro_mono, ro_fin, ro_ok, ro_avail; cbn; lia]].

(* a receive on the empty list is a receive of a zero item *)
Lemma ro_recv_lock e p : ro_lock e p (ro_ok (recv p)) (ro_ok (recv (ro_pext e p))).
Proof.
  destruct p as [rest t0 t1 pk rc]. unfold recv, ro_pext; cbn [p_rest p_tok0 p_tok1 p_peek p_recv].
  destruct rest as [|t r]; [destruct e as [|t e]|]; try ro_pure.
  unfold ro_lock, ro_mono, ro_within, ro_avail, ro_ok, ro_fin; cbn.
  split; [lia|split; [lia|split]].
  - intros [H|H]; lia.
  - intros j Ej _. destruct j as [|j]; [discriminate Ej|]. cbn in Ej. injection Ej as -> ->.
    exists j. reflexivity.
Qed.
(* next and peek when nothing is backed up: a receive, recorded in token[0], with [pk] items then backed up *)
Lemma ro_recv_tok0_lock pk e p :
  ro_lock e p
    (ro_ok (let '(t, s1) := recv p in (t, {| p_rest := p_rest s1; p_tok0 := t; p_tok1 := p_tok1 s1; p_peek := pk; p_recv := p_recv s1 |})))
    (ro_ok (let '(t, s1) := recv (ro_pext e p) in
            (t, {| p_rest := p_rest s1; p_tok0 := t; p_tok1 := p_tok1 s1; p_peek := pk; p_recv := p_recv s1 |}))).
Proof.
  pose proof (ro_lock_bind e p _ _
    (fun t s1 => POk t {| p_rest := p_rest s1; p_tok0 := t; p_tok1 := p_tok1 s1; p_peek := pk; p_recv := p_recv s1 |})
    (fun t s1 => POk t {| p_rest := p_rest s1; p_tok0 := t; p_tok1 := p_tok1 s1; p_peek := pk; p_recv := p_recv s1 |})
    (ro_recv_lock e p)) as H.
  destruct (recv p), (recv (ro_pext e p)). apply H. intros a q e1. ro_pure.
Qed.
Lemma ro_p_next_lock e p : ro_lock e p (ro_ok (p_next p)) (ro_ok (p_next (ro_pext e p))).
Proof.
  unfold p_next. change (p_peek (ro_pext e p)) with (p_peek p). destruct (p_peek p) as [|k]; [apply ro_recv_tok0_lock|ro_pure].
Qed.
Lemma ro_p_peek_tok_lock e p : ro_lock e p (ro_ok (p_peek_tok p)) (ro_ok (p_peek_tok (ro_pext e p))).
Proof.
  unfold p_peek_tok. change (p_peek (ro_pext e p)) with (p_peek p). destruct (p_peek p) as [|k]; [apply ro_recv_tok0_lock|ro_pure].
Qed.

(* `let '(t, st1) := p_next st in ...` is a bind on p_next *)
Lemma ro_lock_let {B} (op : pst -> tok * pst) e p (k k' : tok -> pst -> presult B) :
  (forall e p, ro_lock e p (ro_ok (op p)) (ro_ok (op (ro_pext e p)))) ->
  (forall a q e1, ro_lock e1 q (k a q) (k' a (ro_pext e1 q))) ->
  ro_lock e p (let '(t, s1) := op p in k t s1) (let '(t, s1) := op (ro_pext e p) in k' t s1).
Proof.
  intros Hop Hk. pose proof (ro_lock_bind e p _ _ k k' (Hop e p) Hk) as H.
  destruct (op p), (op (ro_pext e p)). exact H.
Qed.
Lemma ro_lock_let_next {B} e p (k k' : tok -> pst -> presult B) :
  (forall a q e1, ro_lock e1 q (k a q) (k' a (ro_pext e1 q))) ->
  ro_lock e p (let '(t, s1) := p_next p in k t s1) (let '(t, s1) := p_next (ro_pext e p) in k' t s1).
Proof. apply ro_lock_let, ro_p_next_lock. Qed.
Lemma ro_lock_let_peek {B} e p (k k' : tok -> pst -> presult B) :
  (forall a q e1, ro_lock e1 q (k a q) (k' a (ro_pext e1 q))) ->
  ro_lock e p (let '(t, s1) := p_peek_tok p in k t s1) (let '(t, s1) := p_peek_tok (ro_pext e p) in k' t s1).
Proof. apply ro_lock_let, ro_p_peek_tok_lock. Qed.

(* operations that do not look at the items commute with the extension (by computation) *)
Lemma ro_p_backup_pext e p : p_backup (ro_pext e p) = ro_pext e (p_backup p). Proof. reflexivity. Qed.
Lemma ro_p_backup2_pext e p t : p_backup2 (ro_pext e p) t = ro_pext e (p_backup2 p t). Proof. reflexivity. Qed.
Lemma ro_err_tok_pext e p : err_tok (ro_pext e p) = err_tok p. Proof. reflexivity. Qed.
Lemma ro_tok_at_pext e p i : tok_at (ro_pext e p) i = tok_at p i. Proof. reflexivity. Qed.

Lemma ro_c_p_cext e s : c_p (ro_cext e s) = ro_pext e (c_p s). Proof. reflexivity. Qed.
Lemma ro_c_ns_cext e s : c_ns (ro_cext e s) = c_ns s. Proof. reflexivity. Qed.
Lemma ro_c_al_cext e s : c_al (ro_cext e s) = c_al s. Proof. reflexivity. Qed.
Lemma ro_c_inmsg_cext e s : c_inmsg (ro_cext e s) = c_inmsg s. Proof. reflexivity. Qed.
Lemma ro_c_scans_cext e s : c_scans (ro_cext e s) = c_scans s. Proof. reflexivity. Qed.
Lemma ro_set_ns_cext e s ns : set_ns (ro_cext e s) ns = ro_cext e (set_ns s ns). Proof. reflexivity. Qed.
Lemma ro_add_alias_cext e s k v : add_alias (ro_cext e s) k v = ro_cext e (add_alias s k v). Proof. reflexivity. Qed.
Lemma ro_set_inmsg_cext e s x : set_inmsg (ro_cext e s) x = ro_cext e (set_inmsg s x). Proof. reflexivity. Qed.
Lemma ro_add_scan_cext e s r : add_scan (ro_cext e s) r = ro_cext e (add_scan s r). Proof. reflexivity. Qed.
Lemma ro_c_backup_cext e s : c_backup (ro_cext e s) = ro_cext e (c_backup s). Proof. reflexivity. Qed.
Lemma ro_c_backup2_cext e s t : c_backup2 (ro_cext e s) t = ro_cext e (c_backup2 s t). Proof. reflexivity. Qed.
Lemma ro_cst_init_app ts e : cst_init (ts ++ e) = ro_cext e (cst_init ts). Proof. reflexivity. Qed.
Lemma ro_pst_init_app ts e : pst_init (ts ++ e) = ro_pext e (pst_init ts). Proof. reflexivity. Qed.

(* a presult over [c_p s] put back into the command state *)
Definition ro_lift {A} (s : cst) (x : presult A) : cres A :=
  match x with
  | POk a p' => COk a (set_p s p')
  | PErr t c p' => CErr t c (set_p s p')
  | PCrash m => CCrash m
  | PFuel => CFuel
  end.
Lemma ro_lockc_lift {A} e s (x x' : presult A) :
  ro_lock e (c_p s) x x' -> ro_lockc e s (ro_lift s x) (ro_lift (ro_cext e s) x').
Proof.
  intros (M & M' & W & P). split; [|split; [|split]].
  - destruct x; exact M.
  - destruct x'; exact M'.
  - intros Wn. rewrite W; [destruct x; reflexivity|]. destruct Wn as [Wn|Wn]; [left; destruct x|right; destruct x']; exact Wn.
  - intros j Ej Wn. destruct (P j Ej) as (j1 & E1).
    + destruct Wn as [Wn|Wn]; [left; destruct x|right; destruct x']; exact Wn.
    + exists j1. rewrite E1. destruct x; reflexivity.
Qed.

Lemma ro_ret {A} (a : A) : ro_lockC (COk a).
Proof. intros s e. apply ro_lockc_eq; [reflexivity|apply ro_mono_refl]. Qed.

(* next and peek on the command state: token[2] is never indexed, else the operation on the token state *)
Lemma ro_c_tok_lock (op : pst -> tok * pst) :
  (forall e p, ro_lock e p (ro_ok (op p)) (ro_ok (op (ro_pext e p)))) ->
  ro_lockC (fun s => if (3 <=? p_peek (c_p s))%nat then CCrash e_pindex else let '(t, p') := op (c_p s) in COk t (set_p s p')).
Proof.
  intros Hop s e. change (p_peek (c_p (ro_cext e s))) with (p_peek (c_p s)). destruct (3 <=? p_peek (c_p s))%nat.
  - apply ro_lockc_eq; [reflexivity|exact I].
  - pose proof (ro_lockc_lift e s _ _ (Hop e (c_p s))) as H.
    change (c_p (ro_cext e s)) with (ro_pext e (c_p s)).
    destruct (op (c_p s)), (op (ro_pext e (c_p s))). exact H.
Qed.
Lemma ro_c_next_lock : ro_lockC c_next.
Proof. exact (ro_c_tok_lock p_next ro_p_next_lock). Qed.
Lemma ro_c_peek_lock : ro_lockC c_peek.
Proof. exact (ro_c_tok_lock p_peek_tok ro_p_peek_tok_lock). Qed.

Section Prims.
Variable inlen : N.
Lemma ro_c_error_at_lock {A} t c : ro_lockC (@c_error_at inlen A t c).
Proof. intros s e. unfold c_error_at. destruct (t_pos t <=? inlen); (apply ro_lockc_eq; [reflexivity|]); [apply ro_mono_refl|exact I]. Qed.
Lemma ro_c_errorf_lock {A} c : ro_lockC (@c_errorf inlen A c).
Proof.
  intros s e. unfold c_errorf. change (p_peek (c_p (ro_cext e s))) with (p_peek (c_p s)).
  change (err_tok (c_p (ro_cext e s))) with (err_tok (c_p s)).
  destruct (3 <=? p_peek (c_p s))%nat; [apply ro_lockc_eq; [reflexivity|exact I]|apply ro_c_error_at_lock].
Qed.
Lemma ro_c_unexp_lock {A} t c : ro_lockC (@c_unexp inlen A t c).
Proof. intros s e. unfold c_unexp. destruct (tis t pit_Error); apply ro_c_error_at_lock. Qed.
Lemma ro_c_expect_lock typ c : ro_lockC (c_expect inlen typ c).
Proof.
  intros s e. unfold c_expect. apply ro_lockc_bind; [apply ro_c_next_lock|]. intros a q e1.
  destruct (tis a typ); [apply ro_ret|apply ro_c_unexp_lock].
Qed.
End Prims.
Lemma ro_tail1_lock v : ro_lockC (tail1 v).
Proof. intros s e. unfold tail1. destruct v; [apply ro_lockc_eq; [reflexivity|exact I]|apply ro_ret]. Qed.

(* the procedures shown locked above: what the walks of Proofs/RecvOnlyExpr.v and Proofs/RecvOnlyCmd.v close calls from *)
Create HintDb ro discriminated.
#[export] Hint Resolve ro_ret ro_c_next_lock ro_c_peek_lock ro_c_error_at_lock ro_c_errorf_lock ro_c_unexp_lock ro_c_expect_lock
  ro_tail1_lock : ro.

Print Assumptions ro_lock_bind.
Print Assumptions ro_lockc_bind.
Print Assumptions ro_c_expect_lock.
