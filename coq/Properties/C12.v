(* C12 -- a failing output writer always surfaces as a render error.

   "If the writer passed to a render returns an error on any write, the render
   returns a non-nil error, and the bytes the writer accepted before failing are
   a prefix of the output of an unfailing render.  A render returns nil only if
   every byte of the output was accepted."

   The theorems are about [render] of Model/Interp.v (the soyhtml tree walker
   AFTER the repair of defect I4 of DESIGN.md's ledger, /repo 2f90372 = notes/applied/C12-escaper-write-errors.diff:
   htmlEscapeString returns the first write error and evalPrint checks it), for
   EVERY configuration, bundle, template, data, fuel and writer automaton
   [(cl, bl)]: [cl = Some k] fails the (k+1)-th Write call, [bl = Some b] accepts
   b bytes and answers the call that exceeds them with a short write and an
   error.  They follow from a two-run simulation (Proofs/WriterProofs.v,
   [walk_wsim]) between the faulty and the fault-free run, proved once for the
   whole walker through the generic induction principle of Proofs/InterpLogic.v.

   [surfaced o] is [o = Err e_write \/ o = Crash e_index]; the second case is
   the panic of Registry.LineNumber while the write error is being reported
   (position outside the recorded source: duplicate template names, I9, or the
   message-part positions of notes/applied/C12-msg-part-positions.diff; the subject of C06) -- the
   caller does not get a nil error in that case either. *)
From Soy Require Import Model.Bytes Model.Num Model.Values Model.Outcome Model.Ast
  Model.Interp Spec.Writer Spec.Safety Proofs.InterpLogic Proofs.WriterProofs Proofs.WriterSafety.
From Soy Require Import Model.JsWrite Proofs.JsWriteProofs.
From Soy Require Import Model.InterpExt Proofs.InterpExtProofs Proofs.WriterExtProofs.
Open Scope N_scope.

(* if the writer refuses any Write call of the fault-free render (the k-th call with k below
   their number, or a byte budget below the size of the output) the render returns the error *)
Theorem write_fault_surfaces :
  forall cf fuel name id data fid cl bl,
    refuses cl bl (rr_writes (render cf fuel name id data None None fid)) ->
    surfaced (rr_outcome (render cf fuel name id data cl bl fid)).
Proof. exact write_fault_surfaces_l. Qed.
Print Assumptions write_fault_surfaces.

Theorem write_fault_never_ok :
  forall cf fuel name id data fid cl bl,
    refuses cl bl (rr_writes (render cf fuel name id data None None fid)) ->
    is_ok (rr_outcome (render cf fuel name id data cl bl fid)) = false.
Proof.
  intros cf fuel name id data fid cl bl H.
  destruct (write_fault_surfaces_l cf fuel name id data fid cl bl H) as [-> | ->]; reflexivity.
Qed.
Print Assumptions write_fault_never_ok.

(* with C06's premise -- every node position of the registry lies inside the source recorded for its
   template, which is what compilation guarantees (Proofs/SafetyCompile.v) and what excludes the panic
   of Registry.LineNumber inside errRecover -- the refused write surfaces as exactly the write error *)
Theorem write_fault_is_error :
  forall cf fuel name id data fid cl bl,
    reg_pos_ok (c_reg cf) = true ->
    refuses cl bl (rr_writes (render cf fuel name id data None None fid)) ->
    rr_outcome (render cf fuel name id data cl bl fid) = Err e_write.
Proof. exact write_fault_is_error_l. Qed.
Print Assumptions write_fault_is_error.

(* whatever the writer does, what it accepted is a prefix of the fault-free output *)
Theorem accepted_is_prefix :
  forall cf fuel name id data fid cl bl,
    prefix_of (accepted (render cf fuel name id data cl bl fid))
              (accepted (render cf fuel name id data None None fid)).
Proof. exact accepted_is_prefix_l. Qed.
Print Assumptions accepted_is_prefix.

(* exactly which: a writer failing its (k+1)-th call accepted the first k Write calls of the
   fault-free render, a writer of capacity b its first b bytes *)
Theorem accepted_exact_calls :
  forall cf fuel name id data fid k,
    refuses (Some k) None (rr_writes (render cf fuel name id data None None fid)) ->
    rr_writes (render cf fuel name id data (Some k) None fid) =
    firstn k (rr_writes (render cf fuel name id data None None fid)).
Proof. exact accepted_exact_calls_l. Qed.
Print Assumptions accepted_exact_calls.

Theorem accepted_exact_bytes :
  forall cf fuel name id data fid b,
    refuses None (Some b) (rr_writes (render cf fuel name id data None None fid)) ->
    accepted (render cf fuel name id data None (Some b) fid) =
    take (N.to_nat b) (accepted (render cf fuel name id data None None fid)).
Proof. exact accepted_exact_bytes_l. Qed.
Print Assumptions accepted_exact_bytes.

(* a nil error means every Write call of the fault-free render was made and accepted *)
Theorem nil_means_all_written :
  forall cf fuel name id data fid cl bl,
    rr_outcome (render cf fuel name id data cl bl fid) = Ok tt ->
    rr_writes (render cf fuel name id data cl bl fid) = rr_writes (render cf fuel name id data None None fid) /\
    accepted (render cf fuel name id data cl bl fid) = accepted (render cf fuel name id data None None fid) /\
    rr_outcome (render cf fuel name id data None None fid) = Ok tt.
Proof. exact nil_means_all_written_l. Qed.
Print Assumptions nil_means_all_written.

(* and a writer whose budgets suffice changes nothing at all (so [refuses] is exactly the fault) *)
Theorem sufficient_budget_no_change :
  forall cf fuel name id data fid cl bl,
    ~ refuses cl bl (rr_writes (render cf fuel name id data None None fid)) ->
    render cf fuel name id data cl bl fid = render cf fuel name id data None None fid.
Proof. exact sufficient_budget_no_change_l. Qed.
Print Assumptions sufficient_budget_no_change.

(* the simulation itself, for every node, fuel and state of the walker *)
Theorem walker_two_run_simulation :
  forall cf fuel n st, sim st (walk cf fuel n st) (walk cf fuel n (unfault st)).
Proof. exact walk_wsim. Qed.
Print Assumptions walker_two_run_simulation.

(* the pinned escaper (write errors dropped, defect I4) is what the statement rules out *)
Theorem pinned_escaper_refuted :
  exists ws st, calls_left st = Some O /\ bufs st = [] /\ ws <> [] /\
                fst (write_all_unchecked ws st) = Ok tt /\ fst (write_all ws st) = Err e_write.
Proof. exact pinned_escaper_drops_errors. Qed.

(* ---- non-vacuity: <p>{$x}</p> with x = "a<b" makes five Write calls, 13 bytes ---- *)
Definition ex_name := Eval vm_compute in b "ns.t".
Definition ex_node : node :=
  NTemplate 0 ex_name
    (NList 0 [NRawText 1 (b "<p>"); NPrint 4 (NDataRef 5 (b "x") []) []; NRawText 8 (b "</p>")]) 0 false.
Definition ex_cfg : cfg :=
  {| c_reg := {| r_templates := [{| t_name := ex_name; t_node := ex_node; t_ns_name := b "ns"; t_ns_autoescape := 0;
                                    t_params := [(b "x", false)]; t_file := b "f.soy" |}];
                 r_sources := [(ex_name, b "{namespace ns}{template .t}<p>{$x}</p>{/template}")];
                 r_files := [(ex_name, b "f.soy")] |};
     c_ij := None; c_oblig := []; c_msgs := None |}.
Definition ex_run cl bl := render ex_cfg 10 ex_name 7 [(b "x", VStr (b "a<b"))] cl bl 100.

Example ex_fault_free :
  rr_outcome (ex_run None None) = Ok tt /\
  rr_writes (ex_run None None) = [b "<p>"; b "a"; b "&lt;"; b "b"; b "</p>"].
Proof. vm_compute. split; reflexivity. Qed.

Example ex_reg_pos_ok : reg_pos_ok (c_reg ex_cfg) = true.
Proof. vm_compute. reflexivity. Qed.
Example ex_is_error : rr_outcome (ex_run (Some 2%nat) None) = Err e_write.
Proof. apply write_fault_is_error; [exact ex_reg_pos_ok | left; exists 2%nat; split; [reflexivity | vm_compute; lia]]. Qed.

Example ex_refuses_call : refuses (Some 2%nat) None (rr_writes (ex_run None None)).
Proof. left. exists 2%nat. split; [reflexivity | vm_compute; lia]. Qed.
Example ex_call_fault :
  rr_outcome (ex_run (Some 2%nat) None) = Err e_write /\ accepted (ex_run (Some 2%nat) None) = b "<p>a".
Proof. vm_compute. split; reflexivity. Qed.

Example ex_refuses_bytes : refuses None (Some 5) (rr_writes (ex_run None None)).
Proof. right. exists 5. split; [reflexivity | vm_compute; reflexivity]. Qed.
Example ex_short_write :
  rr_outcome (ex_run None (Some 5)) = Err e_write /\ accepted (ex_run None (Some 5)) = b "<p>a&".
Proof. vm_compute. split; reflexivity. Qed.

(* the last print on a dead writer: the witness of I4 is an error in the model of the repaired code *)
Example ex_last_print_dead_writer :
  rr_outcome (render ex_cfg 10 ex_name 7 [(b "x", VStr (b "a"))] (Some 1%nat) None 100) = Err e_write.
Proof. vm_compute. reflexivity. Qed.

(* ================================================================== *)
(* rendering through a message bundle, installed functions and directives *)
(* ================================================================== *)
(* [render_x] (Model/InterpExt.v): the walker extended, by open recursion over [walk_body], with evalMsg's path
   through a translation (evalMsgParts: translated text written with a checked write, placeholders walked, the
   parts of the selected plural form) and with arbitrary installed functions / print directives.  The theorems
   above hold of it verbatim, for every bundle [c_msgs cf] and every installation [ux]. *)
Section Extended.
Variable ux : user_ext.

Theorem write_fault_surfaces_x :
  forall cf fuel name id data fid cl bl,
    refuses cl bl (rr_writes (render_x cf ux fuel name id data None None fid)) ->
    surfaced (rr_outcome (render_x cf ux fuel name id data cl bl fid)).
Proof. intros cf fuel name id data fid. apply write_fault_surfaces_l_x. Qed.

Theorem accepted_is_prefix_x :
  forall cf fuel name id data fid cl bl,
    prefix_of (accepted (render_x cf ux fuel name id data cl bl fid))
              (accepted (render_x cf ux fuel name id data None None fid)).
Proof. intros cf fuel name id data fid. apply accepted_is_prefix_l_x. Qed.

Theorem nil_means_all_written_x :
  forall cf fuel name id data fid cl bl,
    rr_outcome (render_x cf ux fuel name id data cl bl fid) = Ok tt ->
    rr_writes (render_x cf ux fuel name id data cl bl fid) = rr_writes (render_x cf ux fuel name id data None None fid) /\
    accepted (render_x cf ux fuel name id data cl bl fid) = accepted (render_x cf ux fuel name id data None None fid) /\
    rr_outcome (render_x cf ux fuel name id data None None fid) = Ok tt.
Proof. intros cf fuel name id data fid. apply nil_means_all_written_l_x. Qed.

Theorem accepted_exact_calls_x :
  forall cf fuel name id data fid k,
    refuses (Some k) None (rr_writes (render_x cf ux fuel name id data None None fid)) ->
    rr_writes (render_x cf ux fuel name id data (Some k) None fid) =
    firstn k (rr_writes (render_x cf ux fuel name id data None None fid)).
Proof. intros cf fuel name id data fid. apply accepted_exact_calls_l_x. Qed.

Theorem sufficient_budget_no_change_x :
  forall cf fuel name id data fid cl bl,
    ~ refuses cl bl (rr_writes (render_x cf ux fuel name id data None None fid)) ->
    render_x cf ux fuel name id data cl bl fid = render_x cf ux fuel name id data None None fid.
Proof. intros cf fuel name id data fid. apply sufficient_budget_no_change_l_x. Qed.

Theorem walker_two_run_simulation_x :
  forall cf fuel n st, sim st (walk_x cf ux fuel n st) (walk_x cf ux fuel n (unfault st)).
Proof. intros cf fuel n. exact (walk_x_wsim cf ux fuel n). Qed.
End Extended.
Print Assumptions write_fault_surfaces_x.
Print Assumptions accepted_is_prefix_x.
Print Assumptions nil_means_all_written_x.
Print Assumptions accepted_exact_calls_x.
Print Assumptions sufficient_budget_no_change_x.
Print Assumptions walker_two_run_simulation_x.

(* non-vacuity: {msg}{plural $x}{case 1}one{default}{$x} items{/plural}{/msg} through a bundle with the forms "eins" /
   "{N_2} Stueck": the translated text after the last placeholder of the selected form, refused, is an error (the
   situation of seeded change C12b-3) *)
Example ex_translated_plural :
  (rr_outcome (tr_run (Some tr_bundle) 3 None), rr_writes (tr_run (Some tr_bundle) 3 None)) = (Ok tt, [b "3"; b " Stueck"]) /\
  (rr_outcome (tr_run (Some tr_bundle) 3 (Some 1%nat)), rr_writes (tr_run (Some tr_bundle) 3 (Some 1%nat))) = (Err e_write, [b "3"]).
Proof. vm_compute. split; reflexivity. Qed.

(* ================================================================== *)
(* the JavaScript-side counterpart: soyjs.Write on a failing writer     *)
(* ================================================================== *)
(* soyjs.Write generates into memory and hands the caller's writer its pieces (the import block, the script) in
   order.  [js_write] (Model/JsWrite.v) is that, AFTER the repair notes/applied/C12-js-write-errors.diff (each
   Write call checked); the theorems hold for every list of pieces and every writer automaton.  Not a render in the
   sense of the property's text: the harness records the pinned behaviour under the finding
   js-write-drops-writer-errors. *)
Theorem js_write_fault_surfaces :
  forall pieces cl bl, refuses cl bl pieces -> fst (js_write pieces cl bl) = Err e_write.
Proof. exact js_write_fault_surfaces_l. Qed.
Print Assumptions js_write_fault_surfaces.

Theorem js_accepted_is_prefix :
  forall pieces cl bl, prefix_of (concat_b (snd (js_write pieces cl bl))) (concat_b pieces).
Proof. exact js_accepted_is_prefix_l. Qed.
Print Assumptions js_accepted_is_prefix.

Theorem js_nil_means_all_written :
  forall pieces cl bl, fst (js_write pieces cl bl) = Ok tt -> snd (js_write pieces cl bl) = pieces.
Proof. exact js_nil_means_all_written_l. Qed.
Print Assumptions js_nil_means_all_written.

(* the pinned soyjs.Write (results of out.Write dropped) returns nil on a dead writer *)
Theorem js_write_pinned_drops_errors :
  exists pieces cl bl, refuses cl bl pieces /\ fst (js_write_pinned pieces cl bl) = Ok tt /\ snd (js_write_pinned pieces cl bl) = [].
Proof. exact js_write_pinned_refuted. Qed.

Example ex_js_second_piece_refused :
  js_write [b "import x;"; b "var t = 1;"] (Some 1%nat) None = (Err e_write, [b "import x;"]).
Proof. vm_compute. reflexivity. Qed.
