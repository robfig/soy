(* C13 — Compilation and code generation are deterministic functions of the
   sources.  Property theorems only; the model is Model/Compile.v (inventory of
   every ranged Go map in its header), the declarative notions are in
   Spec/Determinism.v, the proofs in Proofs/CompileProofs.v,
   Proofs/CompilePermProofs.v, Proofs/CompileFuelProofs.v,
   Proofs/CompileReaddProofs.v and Proofs/CompileInterruptedProofs.v.

   The model is the tree AFTER the repairs 3edbe48 (ES6 imports sorted), b9a4d3a
   (MapLiteralNode.Children in key order), 850359b (AddGlobalsMap in key order)
   and 4041f47 (a template name defined twice is rejected).  The tree as pinned
   is refuted at the end, once per repaired site.

   [ns] is String() of placeholder nodes (ast/node.go), any function: it enters
   the message ids only through equality of the texts of placeholders sharing
   a base name (C10); its own order independence (map literals print sorted) is
   C10 / C20 (C20_map_string_order_independent, commit 19f0963). *)
From Coq Require Import Permutation Lia.
(* source tie by translation: the lemmas of these files are obligations of this property *)
From Soy Require Import Proofs.SourceTieJs.
From Soy Require Import Model.Bytes Model.Num Model.Values Model.Outcome Model.Ast Model.MsgId Model.Compile Model.JsGen
  Generated.Tables Spec.Determinism Proofs.CompileProofs Proofs.CompilePermProofs Proofs.CompileFuelProofs Proofs.CompileReaddProofs Proofs.CompileInterruptedProofs.
Open Scope N_scope.

(* ================================================================== *)
(* repetitions and processes: Go's map iteration order                *)
(* ================================================================== *)

(* Whatever order Go ranges over its maps in (AddGlobalsMap, MapLiteralNode.Children,
   the placeholder naming, the import collection, the map literal emission),
   Bundle.Compile returns the same: accept or reject; the error with its class,
   unit and the names it mentions; the registry; the globals; the id and the
   placeholder names of every message. *)
Theorem C13_compile_oracle_independent : forall ns o o' globals_calls srcs,
  perm_orders o -> perm_orders o' -> compile ns o globals_calls srcs = compile ns o' globals_calls srcs.
Proof. exact compile_oracle_independent. Qed.
Print Assumptions C13_compile_oracle_independent.

(* ... and soyjs.Write produces byte-identical JavaScript for a file: for
   either formatter, with or without a message bundle, the text generated by
   the byte-exact model of the generator (Model/JsGen.v, C14) does not depend on
   the order in which Go ranges over funcsCalled *)
Theorem C13_generated_js_oracle_independent : forall fmt msgs ord ord' fuel name body,
  perm_order ord -> perm_order ord' ->
  gen_file {| o_fmt := fmt; o_msgs := msgs; o_order := ord |} fuel name body =
  gen_file {| o_fmt := fmt; o_msgs := msgs; o_order := ord' |} fuel name body.
Proof. exact gen_file_order_independent. Qed.
Print Assumptions C13_generated_js_oracle_independent.

(* the import block as a function of the two maps the walk leaves behind *)
Theorem C13_import_block_oracle_independent : forall o o' called infile,
  perm_order o -> perm_order o' -> import_block (sorted_after o) called infile = import_block (sorted_after o') called infile.
Proof. exact import_block_oracle_independent. Qed.
Print Assumptions C13_import_block_oracle_independent.

(* "collect the keys in map order, sort, iterate" visits the keys in one order:
   soyjs/exec.go map literal emission, MapLiteralNode.String and Children,
   funcKeys, data.Map.String, AddGlobalsMap, difference *)
Theorem C13_sorted_range_order_independent : forall o o',
  perm_order o -> perm_order o' -> forall keys, sorted_after o keys = sorted_after o' keys.
Proof. exact sorted_after_kext. Qed.
Print Assumptions C13_sorted_range_order_independent.

(* ================================================================== *)
(* the same files in a different insertion order                      *)
(* ================================================================== *)

(* Accepted in one order: accepted in every order, with the same result
   ([same_result]: Registry.Template, Filename and the line-number source answer
   alike for every name; the same processed files reach the JavaScript
   generator; the same globals; the same message ids and placeholder names per
   template).  Rejected in one order: rejected in every order, and each reported
   error is one of the independent errors of the bundle. *)
Theorem C13_compile_file_perm : forall ns o globals_calls srcs srcs',
  Permutation srcs srcs' ->
  (forall c, compile ns o globals_calls srcs = COk c ->
             exists c', compile ns o globals_calls srcs' = COk c' /\ same_result c c') /\
  (forall e, compile ns o globals_calls srcs = CErr e ->
             exists e', compile ns o globals_calls srcs' = CErr e' /\
                        bundle_error (sorted_after (o_children o)) (bundle_of_globals (sorted_after (o_globals o)) globals_calls) srcs e /\
                        bundle_error (sorted_after (o_children o)) (bundle_of_globals (sorted_after (o_globals o)) globals_calls) srcs e').
Proof. exact compile_file_perm. Qed.
Print Assumptions C13_compile_file_perm.

(* the set of independent errors is a property of the bundle, not of the order *)
Theorem C13_bundle_error_perm : forall ko bg srcs srcs' e,
  Permutation srcs srcs' -> bundle_error ko bg srcs e -> bundle_error ko bg srcs' e.
Proof. exact bundle_error_perm. Qed.
Print Assumptions C13_bundle_error_perm.

Theorem C13_compile_error_of_bundle : forall ns o globals_calls srcs e,
  compile ns o globals_calls srcs = CErr e ->
  bundle_error (sorted_after (o_children o)) (bundle_of_globals (sorted_after (o_globals o)) globals_calls) srcs e.
Proof. exact compile_error_of_bundle. Qed.
Print Assumptions C13_compile_error_of_bundle.

(* No [names_unique] hypothesis is needed: an accepted bundle defines every
   template name once (the I9 repair), and with unique names the first match
   of Registry.Template is the only match. *)
Theorem C13_accepted_names_unique : forall ns o globals_calls srcs c,
  compile ns o globals_calls srcs = COk c -> NoDup (map t_name (r_templates (cp_reg c))).
Proof. exact compile_accept_unique. Qed.
Print Assumptions C13_accepted_names_unique.

Theorem C13_lookup_order_independent : forall ts ts' name,
  NoDup (map t_name ts) -> Permutation ts ts' -> find_template ts name = find_template ts' name.
Proof. exact find_template_perm. Qed.
Print Assumptions C13_lookup_order_independent.

(* the files handed to the JavaScript generator are the same; the generated
   text of a file is a function of that file and the options alone *)
Theorem C13_same_js_inputs : forall c c', same_result c c' -> forall f, In f (cp_soyfiles c) <-> In f (cp_soyfiles c').
Proof. exact same_result_js_inputs. Qed.
Print Assumptions C13_same_js_inputs.

(* Registry.Add never indexes before the first node of a file *)
Theorem C13_add_never_crashes : forall r f, registry_add r f <> inl AEIndexCrash.
Proof. exact registry_add_no_crash. Qed.
Print Assumptions C13_add_never_crashes.

(* the recursion budgets of the model's tree walkers suffice: the explicit
   out-of-fuel outcomes are never what a template is rejected with, and every
   entry of the message table is the result of SetPlaceholdersAndID *)
Theorem C13_checker_budget_suffices : forall ko lookup t, check_template ko lookup t <> Some CKOutOfFuel.
Proof. exact check_template_fuel. Qed.
Print Assumptions C13_checker_budget_suffices.

Theorem C13_globals_budget_suffices : forall ko globals t, set_globals_template ko globals t <> Some GOutOfFuel.
Proof. exact set_globals_template_fuel. Qed.
Print Assumptions C13_globals_budget_suffices.

Theorem C13_messages_budget_suffices : forall ns ko pho t x,
  In x (template_msgs ns ko pho t) -> exists meaning desc body, x = process_msg ns pho meaning desc body.
Proof. exact template_msgs_fuel. Qed.
Print Assumptions C13_messages_budget_suffices.

(* ================================================================== *)
(* the same bundle compiled again                                     *)
(* ================================================================== *)

(* Bundle.Compile keeps no state between calls: b.files holds the TEXT of the
   files, every call parses anew, and the model's [compile] is a function of the
   parse results; a second call differs from the first only in Go's map iteration
   orders (C13_compile_oracle_independent).  The one thing a compilation does
   leave behind is written into the trees it parsed: Registry.Add moves the
   leading {@param} nodes of every template body into the SoyDoc node in front
   of the template, in place.  [rewritten_file f] (Model/Compile.v) is the tree of
   [f] after Add.  What if such a tree reached Add again?

   Add is idempotent on its own output, without any hypothesis ... *)
Theorem C13_add_rewriting_idempotent : forall fname nsname nsae body,
  processed_body fname nsname nsae None (processed_body fname nsname nsae None body) =
  processed_body fname nsname nsae None body.
Proof. exact processed_body_idem. Qed.
Print Assumptions C13_add_rewriting_idempotent.

Theorem C13_rewritten_file_idempotent : forall f, rewritten_file (rewritten_file f) = rewritten_file f.
Proof. exact rewritten_file_idem. Qed.
Print Assumptions C13_rewritten_file_idempotent.

(* ... and adding the rewritten tree gives the registry (or the error), and leaves
   the tree, that adding the original tree gives -- for whatever registry [r] the
   earlier files have built -- PROVIDED every template with header params has a
   SoyDoc node in front of it: that is where the params went. *)
Theorem C13_add_of_rewritten_tree : forall r f,
  headers_documented None (sfile_body f) = true -> registry_add r (rewritten_file f) = registry_add r f.
Proof. exact registry_add_rewritten. Qed.
Print Assumptions C13_add_of_rewritten_tree.

(* Compiling again, under other map iteration orders, from sources of which any
   number are the trees an earlier compilation has rewritten (all of them after
   an accepted compilation; those in front of the failing file after a rejected
   one) gives the result of the first compilation: the same accept/reject, error,
   registry, processed files, globals, message ids and placeholder names.
   FULL statement (without [src_documented]): false of the model and of the code --
   C13_recompile_rewritten_undocumented_refuted below; this is why Bundle.Compile
   must not keep parsed trees (seeded change C13b-1 does, and is caught).  The
   tree of the file on which Add itself returned an error is the subject of
   C13_recompile_after_failed_add_partial. *)
Theorem C13_recompile_rewritten_trees_partial : forall ns o o' globals_calls srcs srcs',
  perm_orders o -> perm_orders o' ->
  Forall (fun s => src_documented s = true) srcs -> Forall2 readd_variant srcs srcs' ->
  compile ns o' globals_calls srcs' = compile ns o globals_calls srcs.
Proof. exact compile_readd. Qed.
Print Assumptions C13_recompile_rewritten_trees_partial.

(* After a compilation that Registry.Add rejected: Add returns at the first
   template it rejects, with the nodes in front of it rewritten and the others
   not ([interrupted_variant], Spec/Determinism.v: a rewritten prefix that ends
   behind a node other than a SoyDoc -- the template whose name was defined
   already --; or a rewritten prefix up to the SoyDoc of the template that has both
   kinds of params, that SoyDoc with the header params appended, once more on
   every failed Add).  Adding such a tree again returns the same error ... *)
Theorem C13_add_of_interrupted_tree : forall r f f' e,
  headers_documented None (sfile_body f) = true -> interrupted_variant f f' ->
  registry_add r f = inl e -> registry_add r f' = inl e.
Proof. exact registry_add_interrupted_variant. Qed.
Print Assumptions C13_add_of_interrupted_tree.

(* ... and compiling again from what that compilation left behind -- the files
   in front of the rejected one as they were or rewritten, the rejected file
   half rewritten, anything behind it (those files were never parsed) -- under
   other map iteration orders gives the same result (the same error).
   Partial for the same reason as above: [src_documented] / [headers_documented]. *)
Theorem C13_recompile_after_failed_add_partial : forall ns o o' globals_calls pre pre' f f' post post' r e,
  perm_orders o -> perm_orders o' ->
  Forall (fun s => src_documented s = true) pre -> Forall2 readd_variant pre pre' ->
  headers_documented None (sfile_body f) = true -> interrupted_variant f f' ->
  add_all_files empty_creg pre = COk r -> registry_add r f = inl e ->
  compile ns o' globals_calls (pre' ++ SrcOk f' :: post') = compile ns o globals_calls (pre ++ SrcOk f :: post).
Proof. exact compile_after_failed_add. Qed.
Print Assumptions C13_recompile_after_failed_add_partial.

(* ================================================================== *)
(* non-vacuity: concrete bundles                                      *)
(* ================================================================== *)

Definition ns0 : node -> bstr := fun _ => [].
Definition id_orders : orders :=
  {| o_globals := fun l => l; o_children := fun l => l; o_ph := fun l => l; o_imports := fun l => l |}.
Definition rev_orders : orders :=
  {| o_globals := @rev bstr; o_children := @rev bstr; o_ph := @rev bstr; o_imports := @rev bstr |}.

Lemma perm_order_id : perm_order (fun l => l).
Proof. intros l. apply Permutation_refl. Qed.
Lemma perm_order_rev : perm_order (@rev bstr).
Proof. intros l. apply Permutation_sym, Permutation_rev. Qed.
Example id_orders_perm : perm_orders id_orders.
Proof. repeat split; apply perm_order_id. Qed.
Example rev_orders_perm : perm_orders rev_orders.
Proof. repeat split; apply perm_order_rev. Qed.

(* {namespace <ns>} /** params */ {template .<t>} body {/template} *)
Definition mk_file (fname ns full : string) (params body : list node) : sfile :=
  {| sfile_name := b fname; sfile_text := b "source";
     sfile_body := [NNamespace 0 (b ns) 0; NSoyDoc 1 params; NTemplate 2 (b full) (NList 3 body) 0 false] |}.
Definition dref (p : N) (k : string) : node := NDataRef p (b k) [].
Definition print (p : N) (e : node) : node := NPrint p e [].

(* a.main calls b.leaf with its param; b.leaf prints it *)
Definition file_a : sfile := mk_file "a.soy" "a" "a.main" [NSoyDocParam 1 (b "x") false]
  [NCall 4 (b "b.leaf") false None [NParamValue 5 (b "v") (dref 6 "x")]].
Definition file_b : sfile := mk_file "b.soy" "b" "b.leaf" [NSoyDocParam 1 (b "v") false] [print 4 (dref 5 "v")].

Definition accepted {A} (r : cresult A) : bool := match r with COk _ => true | CErr _ => false end.

Example ex_accepted_both_orders :
  accepted (compile ns0 id_orders [] [SrcOk file_a; SrcOk file_b]) = true /\
  accepted (compile ns0 rev_orders [] [SrcOk file_b; SrcOk file_a]) = true.
Proof. split; vm_compute; reflexivity. Qed.

(* two independent errors: which one is reported depends on the order -- the
   difference the statement allows *)
Definition file_bad_a : sfile := mk_file "a.soy" "a" "a.main" [] [print 4 (dref 5 "nope")].
Definition file_bad_b : sfile := mk_file "b.soy" "b" "b.leaf" [NSoyDocParam 1 (b "unused") false] [NRawText 4 (b "x")].
Example ex_two_errors :
  compile ns0 id_orders [] [SrcOk file_bad_a; SrcOk file_bad_b] = CErr (ECheck (b "a.main") (CKDataRefNotFound (b "nope") [])) /\
  compile ns0 id_orders [] [SrcOk file_bad_b; SrcOk file_bad_a] = CErr (ECheck (b "b.leaf") (CKUnusedParams [b "unused"])).
Proof. split; vm_compute; reflexivity. Qed.

(* the same template name in two files is rejected in both orders *)
Definition file_dup : sfile := mk_file "dup.soy" "b" "b.leaf" [] [NRawText 4 (b "other")].
Example ex_duplicate_rejected :
  compile ns0 id_orders [] [SrcOk file_b; SrcOk file_dup] = CErr (EAdd (b "dup.soy") (AEDuplicate (b "b.leaf") (b "b.soy") (b "dup.soy"))) /\
  compile ns0 id_orders [] [SrcOk file_dup; SrcOk file_b] = CErr (EAdd (b "b.soy") (AEDuplicate (b "b.leaf") (b "dup.soy") (b "b.soy"))).
Proof. split; vm_compute; reflexivity. Qed.

(* the import block: sorted, and only what the file does not define itself *)
Definition file_imports : sfile := mk_file "i.soy" "i" "i.main" [NSoyDocParam 1 (b "l") false]
  [print 4 (NFunc 5 (b "round") [dref 6 "l"]); print 7 (NFunc 8 (b "length") [dref 9 "l"]);
   NCall 10 (b "b.leaf") false (Some (dref 11 "l")) []; NCall 12 (b "i.main") true None []].
Definition es6 (ord : korder) : jopts := {| o_fmt := ES6; o_msgs := None; o_order := ord |}.
Definition generated (o : jopts) (f : sfile) : outcome bstr :=
  cs <- gen_file o 100 (sfile_name f) (sfile_body f) ;; Ok (render_chunks is_print_tbl cs).
Example ex_imports :
  (exists rest, generated (es6 (fun l => l)) file_imports =
     Ok (b "import { b__leaf } from 'b.leaf.js';" ++ [10] ++ b "import { length } from 'length.js';" ++ [10]
         ++ b "import { round } from 'round.js';" ++ [10; 10] ++ rest)) /\
  generated (es6 (@rev bstr)) file_imports = generated (es6 (fun l => l)) file_imports.
Proof. split; [eexists; vm_compute; reflexivity | vm_compute; reflexivity]. Qed.

(* header params: {namespace h} [/** */] {template .t} {@param x: string} {$x} {/template} *)
Definition hdr_template : node :=
  NTemplate 2 (b "h.t") (NList 3 [NHeaderParam 4 false (b "x") (b "string") None; print 5 (dref 6 "x")]) 0 false.
Definition file_hdr_doc : sfile :=
  {| sfile_name := b "h.soy"; sfile_text := b "source"; sfile_body := [NNamespace 0 (b "h") 0; NSoyDoc 1 []; hdr_template] |}.
Definition file_hdr_nodoc : sfile :=
  {| sfile_name := b "h.soy"; sfile_text := b "source"; sfile_body := [NNamespace 0 (b "h") 0; hdr_template] |}.

(* with a SoyDoc in front: Add moves the param into it (the tree changes), the
   hypothesis of C13_recompile_rewritten_trees_partial holds, the bundle is
   accepted, and compiling the rewritten trees (here under reversed map orders)
   gives the same result *)
Example ex_rewritten_tree :
  sfile_body (rewritten_file file_hdr_doc) =
    [NNamespace 0 (b "h") 0; NSoyDoc 1 [NSoyDocParam 4 (b "x") false]; NTemplate 2 (b "h.t") (NList 3 [print 5 (dref 6 "x")]) 0 false] /\
  Forall (fun s => src_documented s = true) [SrcOk file_a; SrcOk file_hdr_doc; SrcOk file_b] /\
  accepted (compile ns0 id_orders [] [SrcOk file_a; SrcOk file_hdr_doc; SrcOk file_b]) = true /\
  compile ns0 rev_orders [] (map rewritten_src [SrcOk file_a; SrcOk file_hdr_doc; SrcOk file_b]) =
  compile ns0 id_orders [] [SrcOk file_a; SrcOk file_hdr_doc; SrcOk file_b].
Proof.
  split; [vm_compute; reflexivity|]. split; [repeat constructor|]. split; [vm_compute; reflexivity|].
  apply C13_recompile_rewritten_trees_partial;
    [exact id_orders_perm | exact rev_orders_perm | repeat constructor | repeat constructor; right; reflexivity].
Qed.

(* without a SoyDoc in front the param lives in a SoyDoc node that Add made for
   itself: the rewritten tree has lost it, and what was accepted is rejected
   (the witness of seeded change C13b-1: template h.t: data ref "x" not found. params: []) *)
Lemma C13_recompile_rewritten_undocumented_refuted : exists ns o globals_calls srcs,
  perm_orders o /\ accepted (compile ns o globals_calls srcs) = true /\
  compile ns o globals_calls (map rewritten_src srcs) = CErr (ECheck (b "h.t") (CKDataRefNotFound (b "x") [])).
Proof.
  exists ns0, id_orders, [], [SrcOk file_hdr_nodoc].
  split; [exact id_orders_perm|]. split; vm_compute; reflexivity.
Qed.

(* a rejected Add: /** @param y */ {template .t} {@param x: string} ... has both
   kinds of params.  Add has appended x to the SoyDoc before it returns; adding
   that tree again (after a file that was rewritten) is rejected alike *)
Definition file_both : sfile :=
  {| sfile_name := b "h.soy"; sfile_text := b "source";
     sfile_body := [NNamespace 0 (b "h") 0; NSoyDoc 1 [NSoyDocParam 1 (b "y") false]; hdr_template] |}.
Definition file_both_left : sfile := interrupted_file 1 (params_appended [NSoyDocParam 4 (b "x") false]) file_both.
Example ex_failed_add_both :
  sfile_body file_both_left = [NNamespace 0 (b "h") 0; NSoyDoc 1 [NSoyDocParam 1 (b "y") false; NSoyDocParam 4 (b "x") false]; hdr_template] /\
  interrupted_variant file_both file_both_left /\
  compile ns0 id_orders [] [SrcOk file_b; SrcOk file_both; SrcOk file_a] = CErr (EAdd (b "h.soy") (AEBothParamKinds (b "h.t"))) /\
  compile ns0 rev_orders [] [SrcOk (rewritten_file file_b); SrcOk file_both_left; SrcParseErr (b "never parsed") []] =
  compile ns0 id_orders [] [SrcOk file_b; SrcOk file_both; SrcOk file_a].
Proof.
  assert (Hv : interrupted_variant file_both file_both_left).
  { eapply (IV_params_appended file_both 1 _ 1 [NSoyDocParam 1 (b "y") false] hdr_template [] (b "h.t") (b "h") 0); vm_compute; reflexivity. }
  split; [vm_compute; reflexivity|]. split; [exact Hv|]. split; [vm_compute; reflexivity|].
  eapply (C13_recompile_after_failed_add_partial ns0 id_orders rev_orders [] [SrcOk file_b] [SrcOk (rewritten_file file_b)]
            file_both file_both_left [SrcOk file_a] [SrcParseErr (b "never parsed") []] _ (AEBothParamKinds (b "h.t")));
    [exact id_orders_perm | exact rev_orders_perm | repeat constructor | repeat constructor; right; reflexivity
    | vm_compute; reflexivity | exact Hv | vm_compute; reflexivity | vm_compute; reflexivity].
Qed.

(* a rejected Add: the second definition of b.leaf (here with a header param
   and a SoyDoc); Add has rewritten the whole file before it finds the name taken *)
Definition file_dup_hdr : sfile :=
  {| sfile_name := b "dup.soy"; sfile_text := b "source";
     sfile_body := [NNamespace 0 (b "b") 0; NSoyDoc 1 [];
                    NTemplate 2 (b "b.leaf") (NList 3 [NHeaderParam 4 false (b "v") (b "string") None; print 5 (dref 6 "v")]) 0 false] |}.
Example ex_failed_add_duplicate :
  interrupted_variant file_dup_hdr (interrupted_file 3 (fun l => l) file_dup_hdr) /\
  interrupted_file 3 (fun l => l) file_dup_hdr <> file_dup_hdr /\
  registry_add empty_creg file_b <> inl AENamespaceRequired /\
  compile ns0 id_orders [] [SrcOk file_b; SrcOk (interrupted_file 3 (fun l => l) file_dup_hdr)] =
  CErr (EAdd (b "dup.soy") (AEDuplicate (b "b.leaf") (b "b.soy") (b "dup.soy"))).
Proof.
  split; [eapply (IV_rewritten_prefix file_dup_hdr 2 (b "b") 0); [vm_compute; reflexivity | vm_compute; lia | ]|].
  - intros m Hm. vm_compute in Hm. injection Hm as <-. reflexivity.
  - split; [vm_compute; discriminate|]. split; [vm_compute; discriminate|]. vm_compute. reflexivity.
Qed.

(* ================================================================== *)
(* the tree as pinned violates the statement at each repaired site    *)
(* ================================================================== *)

(* MapLiteralNode.Children in map order: {let $m: ['a': $x, 'b': $y]/}{$m} with
   neither $x nor $y declared is rejected with two different errors *)
Definition file_maplit : sfile := mk_file "m.soy" "m" "m.t" []
  [NLetValue 4 (b "m") (NMapLit 5 [(b "a", dref 6 "x"); (b "b", dref 7 "y")]); print 8 (dref 9 "m")].
Lemma pinned_children_refuted : exists o o' calls srcs,
  perm_orders o /\ perm_orders o' /\ compile_gen ns0 (pinned_orders o) calls srcs <> compile_gen ns0 (pinned_orders o') calls srcs.
Proof.
  exists id_orders, rev_orders, [], [SrcOk file_maplit].
  split; [exact id_orders_perm|]. split; [exact rev_orders_perm|]. vm_compute. discriminate.
Qed.

(* AddGlobalsMap in map order: a second map redefining two names *)
Lemma pinned_globals_refuted : exists o o' calls srcs,
  perm_orders o /\ perm_orders o' /\ compile_gen ns0 (pinned_orders o) calls srcs <> compile_gen ns0 (pinned_orders o') calls srcs.
Proof.
  exists id_orders, rev_orders, [[(b "A", VInt 1); (b "B", VInt 2)]; [(b "A", VInt 3); (b "B", VInt 4)]], [SrcOk file_b].
  split; [exact id_orders_perm|]. split; [exact rev_orders_perm|]. vm_compute. discriminate.
Qed.

(* the ES6 import block in map order (ledger J11) *)
Lemma pinned_imports_refuted : exists o o' called infile,
  perm_order o /\ perm_order o' /\ import_block o called infile <> import_block o' called infile.
Proof.
  exists (fun l => l), (@rev bstr), [(b "length", b "import { length } from 'length.js';"); (b "round", b "import { round } from 'round.js';")], [].
  split; [exact perm_order_id|]. split; [exact perm_order_rev|]. vm_compute. discriminate.
Qed.

(* without the duplicate test (ledger I9) both orders are accepted and
   Registry.Template answers with the file that was added first *)
Definition pinned_lookup (fs : list sfile) (name : bstr) : option bstr :=
  match add_files_pinned empty_creg fs with
  | inr r => match find_template (r_templates (cr_reg r)) name with Some t => Some (t_file t) | None => None end
  | inl _ => None
  end.
Lemma pinned_duplicate_names_refuted : exists f g name,
  pinned_lookup [f; g] name = Some (sfile_name f) /\ pinned_lookup [g; f] name = Some (sfile_name g) /\ sfile_name f <> sfile_name g.
Proof.
  exists file_b, file_dup, (b "b.leaf"). split; [vm_compute; reflexivity|]. split; [vm_compute; reflexivity|]. vm_compute. discriminate.
Qed.
