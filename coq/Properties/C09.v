(* C09 — one compiled bundle can be rendered from many goroutines at once.

   "Concurrent renders of the same or different templates of one compiled
   bundle, concurrent JavaScript generation from it, and concurrent
   compilation of independent bundles are free of data races, and each
   concurrent render writes exactly the bytes it writes when run alone."

   THIS PROPERTY IS PARTIAL BY NATURE for a proof assistant.  The Go memory
   model, the scheduler and the accesses inside the runtime and the libraries
   are not modelled.  What Coq carries is the LOGIC:

     (i)  a render's accesses to locations shared between goroutines are reads
          only: [C09_render_no_shared_writes], [C09_render_trace] -- about the
          renderer model Model/Interp.v (the tree AFTER the repair of defect
          I5 of DESIGN.md's ledger, /repo commit 25f4246, notes/applied/C09-directive-list-local.diff: on the pinned tree
          evalPrint appended the obligatory directives to the shared
          PrintNode.Directives, a write to the registry by every render,
          which the immutable [cfg] of the model cannot express and which
          [C09_pinned_directive_append_races] shows the theory would flag);
     (ii) threads that only read shared state (and write only locations they
          own) are race-free under EVERY interleaving, for ANY number of
          threads, and each computes what it computes alone:
          [C09_readonly_sharing_race_free], [C09_readonly_sharing_sequential]
          (Model/Conc.v: the definitions of thread, schedule and race);
     and their combination [C09_concurrent_race_free], [C09_concurrent_results].

   The full statement (kept here; NOT a theorem of this development):

     for every Go execution in which G goroutines call Renderer.Execute on
     one Tofu (any templates, shared data maps, $ij, message bundle) while
     others call soyjs.Write on its registry and others compile independent
     bundles, no two accesses to one memory location of which one is a write
     are unordered by happens-before (Go memory model), and each Execute
     passes its writer the bytes it passes when it is the only goroutine.

   What is missing for it: a model of Go memory and of the accesses of the
   real code (every field and slice access, regexp, bytes.Buffer, math/rand,
   the allocator); the scanner goroutine and its channel (private to each
   parse) are not modelled at all.  That part is OBSERVED: the harness
   (go/cmd/soyverif/c09.go) is built with -race and runs the real code.

   JavaScript generation and compilation are not arbitrary functions with an
   assumed access pattern: JavaScript generation is the model
   Model/JsGen.v ([gen_file]) as a thread (Model/ConcJs.v).
   Everything [gen_file] mutates is its own record [jstate]; the derived,
   access-logging copy of the generator (Generated/JsGenTrace.v, regenerated
   from the text of Model/JsGen.v on every run) records one entry per look at
   a tree node and per read / update of that record;
   [C09_jsgen_traced_is_model] proves that it computes what the model computes
   (a simulation lemma per definition, Generated/JsGenSim.v, regenerated with
   the copy) and [C09_jsgen_no_shared_writes] says that nothing else is ever
   logged, on succeeding and on failing generations;
   a compilation is a private computation (any number of updates of the
   registry it builds, in the thread's own location, then a result of any
   type); Proofs/ConcCompileInst.v instantiates it with [compile] of
   Model/Compile.v, which folds [registry_add] from the empty registry (that
   file is built on every run but kept out of this property's imports, so
   that the message-id tables Model/Compile.v depends on are not C09's tie).  That the Go code has no OTHER mutation is tied to
   the source by (iii): the package-level variables, the writes to them, the
   methods called on them and the writes through syntax-tree / registry /
   bundle typed values in soyhtml, soyjs and template are enumerated from the
   source on every run and must satisfy what the review concluded
   ([C09_package_state_quiet]).

   Generated inputs of this property (tablegen): Generated/PkgState.v by
   90-pkgvars (marker pkg_state_generated in Generated/Tables.v),
   Generated/JsGenTrace.v and Generated/JsGenSim.v by 95-jsgen-trace (marker
   jsgen_trace_derived);
   a failure of either generator is charged to this property. *)
From Coq Require Import List Arith.
From Soy Require Import Model.Bytes Model.Values Model.Outcome Model.Ast Model.Interp Model.JsGen Generated.JsGenTrace
  Model.Conc Model.ConcRender Model.ConcJs Generated.PkgState Model.ConcGlobals
  Proofs.ConcProofs Proofs.PurityProofs Proofs.ConcRenderProofs Proofs.ConcJsProofs Proofs.ConcGlobalsProofs.
Import ListNotations.
Open Scope N_scope.

(* ---------------- (ii) the interleaving theory ---------------- *)

(* Any locations, values, results; any ownership map; ANY number of threads;
   ANY schedule.  [all_disciplined]: in its solo run on the initial store,
   thread i writes only locations it owns and reads only shared locations or
   its own -- "no thread's trace contains a write to a shared location". *)
Theorem C09_readonly_sharing_race_free :
  forall (loc val res : Type) (loc_eqb : loc -> loc -> bool),
    (forall a c, loc_eqb a c = true <-> a = c) ->
    forall (owner : loc -> option nat) (ps : list (prog loc val res)) (s0 : store loc val) (sched : list nat),
      all_disciplined loc_eqb owner ps s0 ->
      ~ has_race (snd (run loc_eqb sched (Build_config ps s0))).
Proof. exact readonly_sharing_race_free. Qed.
Print Assumptions C09_readonly_sharing_race_free.

Theorem C09_readonly_sharing_sequential :
  forall (loc val res : Type) (loc_eqb : loc -> loc -> bool),
    (forall a c, loc_eqb a c = true <-> a = c) ->
    forall (owner : loc -> option nat) (ps : list (prog loc val res)) (s0 : store loc val) (sched : list nat) c tr,
      all_disciplined loc_eqb owner ps s0 ->
      run loc_eqb sched (Build_config ps s0) = (c, tr) ->
      (forall l, owner l = None -> shared c l = s0 l)
      /\ length (threads c) = length ps
      /\ forall i p, nth_error ps i = Some p ->
           proj i tr = firstn (count_occ Nat.eq_dec sched i) (solo_trace loc_eqb p s0)
           /\ (forall r, nth_error (threads c) i = Some (Done r) ->
                 r = solo_result loc_eqb p s0 /\ forall l, owner l = Some i -> shared c l = solo_store loc_eqb p s0 l)
           /\ ((length (solo_trace loc_eqb p s0) <= count_occ Nat.eq_dec sched i)%nat ->
                 nth_error (threads c) i = Some (Done (solo_result loc_eqb p s0))).
Proof. exact readonly_sharing_sequential. Qed.
Print Assumptions C09_readonly_sharing_sequential.

(* the special case without private locations: threads whose solo trace has no write at all *)
Theorem C09_write_free_race_free :
  forall (loc val res : Type) (loc_eqb : loc -> loc -> bool),
    (forall a c, loc_eqb a c = true <-> a = c) ->
    forall (ps : list (prog loc val res)) (s0 : store loc val) (sched : list nat),
      (forall p, In p ps -> write_free loc_eqb p s0) ->
      ~ has_race (snd (run loc_eqb sched (Build_config ps s0))).
Proof. exact write_free_race_free. Qed.
Print Assumptions C09_write_free_race_free.

(* ---------------- (i) a render only reads what it shares ---------------- *)

(* every [set] of every render -- succeeding or failing, whatever its writer
   does -- lands on a frame the render allocated itself (C08's lemma) *)
Theorem C09_render_no_shared_writes :
  forall cf fuel name id data cl bl fid,
    rr_shared_writes (render cf fuel name id data cl bl fid) = [].
Proof. exact render_no_shared_writes. Qed.
Print Assumptions C09_render_no_shared_writes.

(* hence the accesses of a render to shared locations, on ANY store, are the
   reads of the registry, the configuration, the message bundle and the
   caller's maps, and nothing else; and what it returns is the model's render
   of the values it read *)
Theorem C09_render_trace :
  forall (J : Type) (rq : creq) (s : store rloc sval),
    render_trace J rq s = [Rd LRegistry; Rd LConfig; Rd LMessages; Rd LHeap]
    /\ solo_result rloc_eqb (render_prog J rq) s = RRender J (render_alone rq s).
Proof. intros J rq s. split; [apply render_trace_reads | apply render_result_alone]. Qed.
Print Assumptions C09_render_trace.

(* ---------------- (i') JavaScript generation and compilation only write their own memory ---------------- *)

(* THE ACCESS-LOGGING GENERATOR IS THE MODEL, for EVERY options (formatter, message bundle, map order),
   fuel and file: its outcome (the chunks, or the failure) is [gen_file]'s.  Proved definition by
   definition (Generated/JsGenSim.v: one simulation lemma per J-typed definition of Model/JsGen.v,
   statements computed from the types and proofs by the generic tactics of Proofs/ConcJsSimBase.v,
   regenerated together with the instrumented copy on every run), for ANY lawful lens [gen_file_sim] *)
Theorem C09_jsgen_traced_is_model :
  forall (o : jopts) (fuel : nat) (name : bstr) (body : list node),
    fst (gen_file_traced o fuel name body) = JsGen.gen_file o fuel name body.
Proof. exact gen_file_traced_result. Qed.
Print Assumptions C09_jsgen_traced_is_model.

(* ... and whatever it logged -- on a generation that succeeds AND on one that fails half way (the
   instrumented monad keeps its state on failure) -- is a look at a tree node or an access to the
   generator's own record; there is no entry that is a write to shared memory (true by the
   construction of the instrumented primitives: stated so, not more) *)
Theorem C09_jsgen_no_shared_writes :
  forall (o : jopts) (fuel : nat) (name : bstr) (body : list node),
    Forall (fun a => jacc_shared_write a = false) (snd (gen_file_traced o fuel name body)).
Proof. exact jsgen_log_no_shared_write. Qed.
Print Assumptions C09_jsgen_no_shared_writes.

(* as threads: soyjs.Write of any file of the bundle (at object granularity, and access by access as
   logged) and Bundle.Compile of any independent bundle keep the ownership discipline on ANY store,
   and return [gen_file] of the model / the compilation's result *)
Theorem C09_jsgen_compile_threads_disciplined :
  forall (CR : Type) (i : nat) (s : store rloc sval),
    (forall o fuel file,
        disciplined rloc_eqb rowner i (cjsgen_prog CR i o fuel file) s
        /\ solo_result rloc_eqb (cjsgen_prog CR i o fuel file) s = CRJs (js_on o fuel file (s LFiles))
        /\ disciplined rloc_eqb rowner i (cjsgen_fine_prog CR i o fuel file) s
        /\ solo_result rloc_eqb (cjsgen_fine_prog CR i o fuel file) s = CRJs (js_on o fuel file (s LFiles)))
    /\ (forall c : ccompile CR,
        disciplined rloc_eqb rowner i (ccompile_prog i c) s
        /\ solo_result rloc_eqb (ccompile_prog i c) s = CRCompiled (cc_result c)).
Proof.
  intros CR i s. split.
  - intros o fuel file. split; [apply cjsgen_disciplined|]. split; [apply cjsgen_result|].
    split; [apply cjsgen_fine_disciplined|]. rewrite cjsgen_fine_result. now rewrite js_fine_on_model.
  - intros c. split; [apply ccompile_disciplined|apply ccompile_result].
Qed.
Print Assumptions C09_jsgen_compile_threads_disciplined.

(* ---------------- the combination ---------------- *)

(* Any family of tasks over one store -- renders of any templates with any
   data, JavaScript generation of any file with any options (Model/JsGen.v),
   compilations of any independent bundles (private computations of any
   length and result; Model/Compile.v is one: Proofs/ConcCompileInst.v) -- under ANY
   schedule: no race at the model's abstract locations. *)
Theorem C09_concurrent_race_free :
  forall (CR : Type) (ts : list (ctask CR)) (s0 : store rloc sval) (sched : list nat),
    ~ has_race (snd (run rloc_eqb sched (Build_config (ctask_progs ts) s0))).
Proof. exact concurrent_ctasks_race_free. Qed.
Print Assumptions C09_concurrent_race_free.

(* ... every shared location (registry, file trees, configuration, message
   bundle, caller's maps) is unchanged, and every task that has finished has
   the result of its solo run on the initial store (a render: the same outcome,
   the same Write calls with the same bytes, the same error position; a
   generation: the chunks of [gen_file]; a compilation: [compile]); it has
   finished once it was scheduled as often as it has accesses. *)
Theorem C09_concurrent_results :
  forall (CR : Type) (ts : list (ctask CR)) (s0 : store rloc sval) (sched : list nat) c tr,
    run rloc_eqb sched (Build_config (ctask_progs ts) s0) = (c, tr) ->
    (forall l, rowner l = None -> shared c l = s0 l)
    /\ forall i t, nth_error ts i = Some t ->
         (forall r, nth_error (threads c) i = Some (Done r) -> r = ctask_alone t s0)
         /\ ((length (solo_trace rloc_eqb (ctask_prog i t) s0) <= count_occ Nat.eq_dec sched i)%nat ->
               nth_error (threads c) i = Some (Done (ctask_alone t s0)))
         /\ proj i tr = firstn (count_occ Nat.eq_dec sched i) (solo_trace rloc_eqb (ctask_prog i t) s0).
Proof. exact concurrent_ctasks_sequential. Qed.
Print Assumptions C09_concurrent_results.

(* spelled out for the bytes of a render over one compiled bundle *)
Corollary C09_concurrent_render_bytes :
  forall (CR : Type) reg fs oblig msgs h (ts : list (ctask CR)) (sched : list nat) c tr i rq rr,
    run rloc_eqb sched (Build_config (ctask_progs ts) (bundle_store_files reg fs oblig msgs h)) = (c, tr) ->
    nth_error ts i = Some (CRender rq) ->
    nth_error (threads c) i = Some (Done (CRRender (Some rr))) ->
    render_on rq (SRegistry reg) (SConfig oblig) (SMessages msgs) (SHeap h) = Some rr
    /\ shared c LRegistry = SRegistry reg /\ shared c LFiles = SFiles fs /\ shared c LHeap = SHeap h.
Proof.
  intros CR reg fs oblig msgs h ts sched c tr i rq rr Hrun Ht Hd.
  destruct (concurrent_ctasks_sequential CR ts _ sched c tr Hrun) as (Hsh & Hth).
  destruct (Hth i _ Ht) as (Hdone & _ & _). specialize (Hdone _ Hd). cbn in Hdone.
  split; [|split; [apply (Hsh LRegistry); reflexivity|split; [apply (Hsh LFiles); reflexivity|apply (Hsh LHeap); reflexivity]]].
  unfold render_alone in Hdone. cbn in Hdone. now inversion Hdone.
Qed.
Print Assumptions C09_concurrent_render_bytes.

(* The granularity and placement of the accesses does not matter.  The
   threads above read each shared object once; the real code reads registry,
   maps and bundle piecemeal.  ANY thread programs that, alone on the initial
   store, keep the discipline and return the tasks' results (however many
   reads they make, wherever they place them) are race-free under every
   schedule and return those results. *)
Theorem C09_any_access_placement :
  forall (CR : Type) (ps : list (cprog CR)) (ts : list (ctask CR)) (s0 : store rloc sval) (sched : list nat) c tr,
    length ps = length ts ->
    (forall i p t, nth_error ps i = Some p -> nth_error ts i = Some t -> implements_task CR s0 i p t) ->
    run rloc_eqb sched (Build_config ps s0) = (c, tr) ->
    ~ has_race tr
    /\ (forall l, rowner l = None -> shared c l = s0 l)
    /\ forall i t r, nth_error ts i = Some t -> nth_error (threads c) i = Some (Done r) -> r = ctask_alone t s0.
Proof. exact any_access_placement. Qed.
Print Assumptions C09_any_access_placement.

(* ---------------- (iii) the package-level state of the source is quiet ---------------- *)

(* Generated/PkgState.v lists, from the current Go sources: every package-level variable, every write
   to one in a function body, every method called on one, every write through a syntax-tree / registry /
   bundle typed value in soyhtml, soyjs, template.  By computation on those lists:
   - every package-level variable is a regexp, replacer, logger, error, reflect.Type, flag, literal or a
     table built by its initialiser -- the only variable of a kind that can hold mutable state is the
     verification hook: there is no package-level pool, lock, Once, channel, lazily assigned variable;
   - every write to a package-level variable is in an init function (commands excepted);
   - every method called on one is a reviewed read-only / internally locked method;
   - every write through a shared type -- directly, or in a callee of any package of the repository (the
     sources are type-checked; calls through interfaces are resolved to every implementing type) -- is
     Registry.Add building the registry under compilation, a capped append, or the one reviewed LATENT
     HAZARD the callee analysis found: ast.MsgNode.Placeholder, called by evalMsgParts of the renderer and
     of the JavaScript generator, appends to a queue that starts as the body's own (shared) child slice;
     no input makes that append write shared memory (a message body with a non-placeholder parent child
     is a single plural node, built with capacity = length = 1 by the parser: Model/ConcGlobals.v,
     [reviewed_latent_writes]; the race harness probes that invariant on every parsed bundle).  The
     JavaScript generator has no other, the renderer only the capped append besides. *)
Theorem C09_package_state_quiet :
  (forall d n k, In (d, n, k) pkg_vars -> kind_quiet k = true \/ In (d, n, k) reviewed_loud_vars)
  /\ (forall w, In w pkg_var_writes -> write_in_init w = true)
  /\ (forall m, In m pkg_var_methods -> method_reviewed m = true)
  /\ (forall w, In w shared_type_writes -> shared_write_benign w = true)
  /\ (forall w, In w (filter (in_pkg k_soyjs) shared_type_writes) -> reviewed_latent w = true)
  /\ (forall w, In w (filter (in_pkg k_soyhtml) shared_type_writes) -> kind_of_write w = k_capped \/ reviewed_latent w = true).
Proof.
  split; [exact package_vars_quiet|]. split; [exact package_writes_only_in_init|].
  split; [exact package_methods_reviewed|]. split; [exact shared_type_writes_benign|].
  split; [exact soyjs_never_writes_through_shared_types|].
  exact soyhtml_writes_through_shared_types_only_capped.
Qed.
Print Assumptions C09_package_state_quiet.

(* the predicates are not vacuous: they reject a pool, a write outside init, a cache's method, a write
   through a node in the renderer *)
Example C09_package_predicates_reject :
  kind_quiet (b "pool") = false /\ kind_quiet (b "zero:int") = false /\ kind_quiet (b "sync") = false
  /\ write_in_init (b "template", b "cache", b "template:(*Registry).Template", b "assign-element") = false
  /\ method_reviewed (b "parse", b "lexers", b "parse:startLexer", b "Get") = false
  /\ shared_write_benign (b "soyhtml", b "node.Directives", b "soyhtml:(*state).evalPrint", b "assign-through") = false
  /\ shared_write_benign (b "soyjs", b "directives", b "soyjs:(*state).visitPrint", b "append-to") = false
  /\ (1 < length pkg_vars /\ 0 < length pkg_var_writes /\ 0 < length pkg_var_methods /\ 0 < length shared_type_writes)%nat.
Proof. vm_compute. repeat split; try reflexivity; repeat constructor. Qed.

(* ---------------- what the theory rules out ---------------- *)

(* the pinned evalPrint (reads the node's directive list, writes the appended list back): two such renders race *)
Theorem C09_pinned_directive_append_races :
  has_race (snd (run rloc_eqb [0; 0; 1]%nat (Build_config [pinned_print_prog unit; pinned_print_prog unit] (fun _ => SClobbered)))).
Proof. exact pinned_print_races. Qed.

(* a render whose [set] landed on a caller's map would race with any other render *)
Theorem C09_shared_set_would_race :
  let p : rprog unit := Read LHeap (fun _ => write_ids unit [5] (Done (RRender unit None))) in
  has_race (snd (run rloc_eqb [0; 0; 1]%nat (Build_config [p; p] (fun _ => SClobbered)))).
Proof. exact shared_set_races. Qed.

(* ---------------- non-vacuity ---------------- *)

(* One bundle ({namespace ns}{template .t}{$x}{/template}, obligatory directive
   escapeUri), one data map shared by two renders, two JavaScript generations
   of its file (one at object granularity, one access by access) and a
   compilation, interleaved access by access: everything
   finishes, both renders wrote "a+b", both generations produced the same text,
   the compile thread left its result in its own location. *)
Definition ex_rq : creq :=
  {| cq_name := wit_name; cq_data := Some 7; cq_ij := None; cq_fuel := 10%nat; cq_calls := None; cq_bytes := None; cq_first_id := 100 |}.
Definition ex_file : jfile :=
  {| jf_name := b "f.soy";
     jf_body := [NNamespace 0 (b "ns") 0; NSoyDoc 0 [NSoyDocParam 0 wit_x false]; NTemplate 0 wit_name (NList 0 [NPrint 4 (NDataRef 5 wit_x []) []]) 0 false] |}.
Definition ex_store : store rloc sval :=
  bundle_store_files wit_reg [ex_file] [b "escapeUri"] None [(7, [(wit_x, VStr (b "a b"))])].
Definition ex_opts : jopts := {| o_fmt := ES5; o_msgs := None; o_order := fun l => l |}.
Definition ex_compile : ccompile nat := {| cc_steps := 2; cc_result := 1%nat |}.
Definition ex_tasks : list (ctask nat) :=
  [CRender ex_rq; CJsGen ex_opts 20 0; CRender ex_rq; CCompile ex_compile; CJsGenFine ex_opts 20 0].
Definition ex_sched : list nat := [0; 2; 3; 0; 1; 2; 2; 0; 3; 9; 2; 0; 1; 1; 3; 3; 4; 3]%nat ++ repeat 4%nat 400.

Definition ex_summary (p : cprog nat) : option (bool * bstr) :=
  match p with
  | Done (CRRender (Some rr)) => Some (is_ok (rr_outcome rr), concat_b (rr_writes rr))
  | Done (CRJs (Some (Ok cs))) => Some (true, [N.of_nat (length cs)])
  | Done (CRCompiled n) => Some (true, [N.of_nat n])
  | _ => None
  end.

Example C09_nonvacuous :
  let '(c, tr) := run rloc_eqb ex_sched (Build_config (ctask_progs ex_tasks) ex_store) in
  match map ex_summary (threads c) with
  | [Some (true, r0); Some (true, [j1]); Some (true, r2); Some (true, [1]); Some (true, [j4])] =>
      r0 = b "a+b" /\ r2 = b "a+b" /\ j1 = j4 /\ (0 < j1)
  | _ => False
  end
  /\ proj 2 tr = [Rd LRegistry; Rd LConfig; Rd LMessages; Rd LHeap]
  /\ proj 1 tr = [Rd LFiles; Rd LMessages; Wr (LOwn 1) SClobbered]
  /\ Nat.ltb 10 (length (proj 4 tr)) = true
  /\ match shared c (LOwn 3) with SClobbered => true | _ => false end = true.
Proof. vm_compute. repeat split; reflexivity. Qed.

(* the traced generator logs tree reads and own accesses on this file, and produces the text of gen_file *)
Example C09_trace_nonvacuous :
  match gen_file_traced ex_opts 20 (jf_name ex_file) (jf_body ex_file) with
  | (Ok cs, t) =>
      Ok cs = JsGen.gen_file ex_opts 20 (jf_name ex_file) (jf_body ex_file)
      /\ (let '(r, o, w) := jacc_count t in Nat.leb 4 r && Nat.leb 10 o && Nat.leb 10 w = true)
  | _ => False
  end.
Proof. vm_compute. split; reflexivity. Qed.

(* a generation that fails half way (the second template prints through a directive the generator does
   not know) still has its log: the accesses up to the failure *)
Definition ex_bad_file : jfile :=
  {| jf_name := b "bad.soy";
     jf_body := jf_body ex_file ++
       [NTemplate 9 (b "ns.t2") (NList 9 [NPrint 10 (NDataRef 11 wit_x []) [NDirective 12 (b "noSuchDirective") []]]) 0 false] |}.
Example C09_failing_trace_nonvacuous :
  match gen_file_traced ex_opts 20 (jf_name ex_bad_file) (jf_body ex_bad_file) with
  | (Err e, t) =>
      Err e = JsGen.gen_file ex_opts 20 (jf_name ex_bad_file) (jf_body ex_bad_file)
      /\ (let '(r, o, w) := jacc_count t in Nat.leb 6 r && Nat.leb 10 o && Nat.leb 10 w = true)
  | _ => False
  end.
Proof. vm_compute. split; reflexivity. Qed.

(* a render that re-reads the caller's maps and the registry between its steps implements the same render *)
Definition ex_piecemeal : cprog nat :=
  Read LHeap (fun _ => Read LRegistry (fun vr => Read LHeap (fun _ => Read LConfig (fun vc => Read LRegistry (fun _ =>
  Read LMessages (fun vm => Read LHeap (fun vh => Done (CRRender (render_on ex_rq vr vc vm vh))))))))).
Example C09_piecemeal_nonvacuous :
  implements_task nat ex_store 0 ex_piecemeal (CRender ex_rq) /\ implements_task nat ex_store 1 (ctask_prog 1 (CRender ex_rq)) (CRender ex_rq).
Proof.
  split; [|apply ctask_prog_implements].
  split; [unfold disciplined; vm_compute; repeat constructor | vm_compute; reflexivity].
Qed.

(* the hypotheses of the general theorems are satisfiable with private locations in play *)
Example C09_discipline_nonvacuous :
  all_disciplined rloc_eqb rowner (ctask_progs ex_tasks) ex_store
  /\ ~ write_free rloc_eqb (ccompile_prog 3 ex_compile) ex_store.
Proof.
  split; [apply ctasks_disciplined|].
  unfold write_free. vm_compute. intros H. inversion H as [|? ? Hw _]. discriminate.
Qed.
