(* C15 — Template text is normalised by the line-joining rule and nothing else.
   Property theorems only. *)
(* source tie by translation: the lemmas of these files are obligations of this property *)
From Soy Require Import Proofs.SourceTieText.
From Soy Require Import Model.Bytes.
From Soy Require Import Model.Utf8.
From Soy Require Import Model.Outcome.
From Soy Require Import Model.RawText.
From Soy Require Import Spec.Text.
From Soy Require Import Proofs.RawTextProofs.
From Soy Require Import Model.Ast Model.Token Model.Lexer Model.Parser Generated.Tables
  Proofs.LexerProofs Proofs.LexBodyText Proofs.LexBodyTop Proofs.ParseBodyText Proofs.BodyTextMain.
From Soy Require Import Spec.TextBody Proofs.LexTokens Proofs.LexPrintTop Proofs.LexBodyLit Proofs.BodyCmdMain.
From Soy Require Import Spec.TextMix Proofs.BodyMixMain Proofs.LexBodySeg Proofs.LexBodyMix Proofs.ExprParserRules Proofs.ParseBodyText Proofs.BodyStretchAny.
From Soy Require Import Spec.TextTemplate Proofs.ParserProofs Proofs.BodyTemplateMain.
From Soy Require Import Model.AstPrint Spec.ExprSyntax Spec.TextTags Proofs.LexPrintMain Proofs.LexPrintCmd Proofs.CmdParserStripDefs Proofs.LexBodyTags Proofs.BodyTagsMain Proofs.BodyTagsTpl.
Open Scope N_scope.

(* The loop of parse/rawtext.go returns exactly the Spec's normalisation, under
   both trim flags, for every byte string without a NUL byte (NUL is outside the
   property's alphabet: letters, < > space tab CR LF and multi-byte runes;
   invalid UTF-8 is inside the theorem). *)
Theorem C15_rawtext_impl_spec : forall s tb ta,
  no_nul s -> rawtext s tb ta = normalize tb ta s.
Proof. exact rawtext_impl_spec. Qed.
Print Assumptions C15_rawtext_impl_spec.

(* the same with the outcome made explicit: the loop returns (no index out of
   range in its two copy loops) and what it returns is the Spec's result *)
Theorem C15_rawtext_run_spec : forall s tb ta,
  no_nul s -> rawtext_run s tb ta = Ok (normalize tb ta s).
Proof. exact rawtext_run_spec. Qed.
Print Assumptions C15_rawtext_run_spec.

(* For every byte string whatsoever the code computes the same rule with NUL
   as a third joiner next to < and > (isTightJoiner lists rune 0, which is also
   the initial lastChar), and never crashes. *)
Theorem C15_rawtext_run_general : forall s tb ta,
  rawtext_run s tb ta = Ok (normalize_with is_tight_joiner tb ta s).
Proof. exact rawtext_run_general. Qed.
Print Assumptions C15_rawtext_run_general.

(* The guard of C15_rawtext_impl_spec is needed: next to a line break a NUL
   byte joins without the space the statement asks for. *)
Theorem C15_rawtext_nul_joins :
  rawtext [97; 0; 10; 98] false false = [97; 0; 98] /\
  normalize false false [97; 0; 10; 98] = [97; 0; 32; 98].
Proof. exact rawtext_nul_joins. Qed.
Print Assumptions C15_rawtext_nul_joins.

(* corollary, for every byte string (NUL included): the bytes that are not
   white space reach the output intact and in order *)
Theorem C15_nonspace_preserved : forall s tb ta, nonspace (rawtext s tb ta) = nonspace s.
Proof. exact nonspace_preserved. Qed.
Print Assumptions C15_nonspace_preserved.

(* readable consequences of the rule: text without white space is unchanged;
   interior white space without a line break is preserved exactly, with a line
   break it becomes one space, or nothing when either neighbour is < or > *)
Theorem C15_normalize_no_ws : forall tb ta s,
  Forall (fun x => ws x = false) s -> normalize tb ta s = s.
Proof. exact normalize_no_ws. Qed.
Print Assumptions C15_normalize_no_ws.

Theorem C15_normalize_interior : forall tb ta x w y,
  ws x = false -> ws y = false -> w <> [] -> Forall (fun c => ws c = true) w ->
  normalize tb ta ([x] ++ w ++ [y]) =
  [x] ++ (if existsb line_break w then (if angle x || angle y then [] else [32]) else w) ++ [y].
Proof. exact normalize_interior. Qed.
Print Assumptions C15_normalize_interior.

(* ---- non-vacuity: concrete instances (LF = 10, CR = 13, tab = 9) ---- *)

(* a line break inside text: one space; next to < or >: nothing; at the ends: dropped;
   white space without a line break: kept exactly *)
Example C15_ex_join :
  rawtext (b "  a" ++ [32; 10; 9] ++ b "b <i>" ++ [13; 10] ++ b "  c </i>" ++ [10] ++ b "d" ++ [9; 32] ++ b "e" ++ [10; 32]) false false
  = b "  a b <i>c </i>d" ++ [9; 32] ++ b "e".
Proof. vm_compute. reflexivity. Qed.

(* the same text between two comments: the white space at both ends goes too *)
Example C15_ex_flags :
  rawtext (b "  a  b  ") true true = b "a  b" /\ rawtext (b "  a  b  ") false true = b "  a  b"
  /\ normalize true false (b "  a  b  ") = b "a  b  ".
Proof. repeat split; vm_compute; reflexivity. Qed.

(* multi-byte runes and invalid UTF-8 are copied verbatim: e-acute, a lone 0xC3, a lone 0x80 *)
Example C15_ex_utf8 :
  rawtext ([195; 169; 10; 32; 195; 32; 128; 10]) false false = [195; 169; 32; 195; 32; 128]
  /\ no_nul [195; 169; 10; 32; 195; 32; 128; 10].
Proof. split; [vm_compute; reflexivity | repeat constructor; discriminate]. Qed.

(* the hypotheses of C15_normalize_interior are satisfiable *)
Example C15_ex_interior : normalize false false ([97] ++ [32; 10] ++ [60]) = [97; 60].
Proof. vm_compute. reflexivity. Qed.

(* ---- template level: scanner model + parser model against the Spec's body_text ---- *)

(* For EVERY text T of plain bytes (no NUL, no brace; multi-byte runes and invalid UTF-8 included) on which the
   Spec is defined (every block comment closed, no soydoc opener): the scanner model of parse/lexer.go
   (lexText, maybeEmitText, allSpaceWithNewline, lexLineComment, lexBlockComment; unicode tables of the
   toolchain), run on T as a file, returns an item list, and the parser model of parse/parse.go (SoyFile:
   itemList, textOrTag with its comment flags, the text-item run, rawtext), run on these items under the entry
   point's own budget, returns a list node whose children are all raw-text nodes and whose texts,
   concatenated, are exactly body_text true T: comments removed, each piece between comments normalised by
   [normalize] with a comment acting as a flagged end, white-space-only pieces with a line break dropped.
   ([lexq], [unq], [inlen] -- the nested scanner, strconv.Unquote and the length used for error positions --
   are arbitrary: this path never consults them.)
   PARTIAL with respect to the design's body_text_spec: T is the whole input (so "//" at the very start is a
   comment) and contains no tag; the statement for bodies in which comments, special-character commands and
   {literal} blocks mix is C15_body_text_spec below, and C15_template_body_text_spec for a body inside {template}. *)
Theorem C15_body_text_spec_partial : forall inlen lexq unq T out,
  plain T -> body_text true T = Some out ->
  exists items pos nodes st,
    lex_items is_letter_tbl is_digit_tbl (lex_budget T) false T = Ok items /\
    po_result (soy_file inlen lexq unq items) = POk (NList pos nodes) st /\
    Forall is_raw nodes /\ concat (map raw_text_of nodes) = out.
Proof.
  intros inlen lexq unq. destruct tables_ascii as [Hl Hd]. destruct tables_eof as [El Ed].
  exact (body_text_impl_spec is_letter_tbl is_digit_tbl Hl Hd El Ed inlen lexq unq).
Qed.
Print Assumptions C15_body_text_spec_partial.

(* the scanner alone, in the Spec's terms: the items of T are, piece by piece, the piece's text item (none
   for an empty piece or one of white space with a line break), then the comment item, and EOF at the end *)
Theorem C15_lex_text_pieces : forall T pcs,
  plain T -> pieces MText true [] T = Some pcs ->
  exists items, lex_items is_letter_tbl is_digit_tbl (lex_budget T) false T = Ok items /\ shape pcs items.
Proof. destruct tables_eof as [Hl Hd]. exact (lex_body_items is_letter_tbl is_digit_tbl Hl Hd). Qed.
Print Assumptions C15_lex_text_pieces.

(* "http://x is not a comment", as a theorem about lexText: a text in which the Spec finds no comment -- every
   "//" follows a byte that is not white space, there is no "/*" -- is sent as ONE text item, then EOF *)
Theorem C15_http_not_comment : forall T,
  plain T -> pieces MText true [] T = Some [T] ->
  exists items e, lex_items is_letter_tbl is_digit_tbl (lex_budget T) false T = Ok items /\ t_typ e = itemEOF /\
    (if droppable T then items = [e]
     else exists p, items = [{| t_typ := itemText; t_pos := p; t_val := T |}; e]).
Proof. destruct tables_eof as [Hl Hd]. exact (no_comment_one_item is_letter_tbl is_digit_tbl Hl Hd). Qed.
Print Assumptions C15_http_not_comment.

(* and the Spec finds no comment there: "//" after a byte that is neither white space nor '/' is text *)
Theorem C15_slashes_after_nonspace : forall pw cur c v, ws c = false -> c <> 47 ->
  pieces MText pw cur (c :: 47 :: 47 :: v) = pieces MText false (47 :: c :: cur) (47 :: v).
Proof. exact slashes_after_nonspace. Qed.
Print Assumptions C15_slashes_after_nonspace.

(* ---- bodies with special-character commands ---- *)
(* For EVERY body  T0 {c1} T1 {c2} T2 ... {cn} Tn  (Spec/TextBody.v) in which every ci is one of the seven
   special-character commands {sp} {nil} {\t} {\r} {\n} {lb} {rb} or a literal block {literal}s{/literal}
   (cmd_ok) and every stretch Ti consists of plain bytes (no
   NUL, no brace) and contains no comment in the Spec's sense (T0 begins the input, where a leading "//" would be
   one; after a tag it is not): the scanner model run on the body as a file (lexText up to each "{", lexLeftDelim,
   lexBeginTag, lexInsideTag / lexIdent on the command name, "}" -> lexRightDelim) returns an item list, and the
   parser model (SoyFile: itemList, textOrTag, beginTag's special-character and literal cases, rawtext) run on it under the
   entry point's own budget returns a list node whose children are all raw-text nodes and whose texts,
   concatenated, are  normalize T0 ++ char(c1) ++ normalize T1 ++ ... : each stretch normalised as a whole with
   no flagged end, each command giving exactly its character ({nil}: nothing), each literal block its text s
   verbatim (lexLiteral with strings.Index; no normalisation).  Stretches may be empty.
   Comments inside such a body: C15_body_text_spec below.  "{literal }" written with blanks before the brace is
   covered (cmd_ok: lit_name_sp; C15_literal_blanks_exact). *)
Theorem C15_body_special_chars_spec : forall inlen lexq unq T0 rest,
  stretch_ok true T0 -> Forall seg_ok rest ->
  exists items pos nodes st,
    lex_items is_letter_tbl is_digit_tbl (lex_budget (body_src T0 rest)) false (body_src T0 rest) = Ok items /\
    po_result (soy_file inlen lexq unq items) = POk (NList pos nodes) st /\
    Forall is_raw nodes /\ concat (map raw_text_of nodes) = body_out T0 rest.
Proof.
  intros inlen lexq unq. destruct tables_ascii as [Hl Hd]. destruct tables_eof as [El Ed].
  exact (body_cmds_impl_spec is_letter_tbl is_digit_tbl Hl Hd El Ed inlen lexq unq).
Qed.
Print Assumptions C15_body_special_chars_spec.

(* special_chars_exact: a special-character command alone gives exactly its character *)
Theorem C15_special_chars_exact : forall inlen lexq unq name out, In (name, out) special_cmds ->
  exists items pos nodes st,
    lex_items is_letter_tbl is_digit_tbl (lex_budget ([123] ++ name ++ [125])) false ([123] ++ name ++ [125]) = Ok items /\
    po_result (soy_file inlen lexq unq items) = POk (NList pos nodes) st /\
    Forall is_raw nodes /\ concat (map raw_text_of nodes) = out.
Proof.
  intros inlen lexq unq name out Hin. destruct tables_ascii as [Hl Hd]. destruct tables_eof as [El Ed].
  exact (cmd_alone_impl_spec is_letter_tbl is_digit_tbl Hl Hd El Ed inlen lexq unq (name, out) (or_introl Hin)).
Qed.
Print Assumptions C15_special_chars_exact.

(* literal_exact: {literal}s{/literal} alone gives exactly s, whatever bytes s consists of (braces, comment
   openers, line breaks, NUL), as long as "{/literal}" does not occur in s ++ "{/literal}" before the end *)
Theorem C15_literal_exact : forall inlen lexq unq s, lit_closed s ->
  exists items pos nodes st,
    lex_items is_letter_tbl is_digit_tbl (lex_budget ([123] ++ lit_name s ++ [125])) false ([123] ++ lit_name s ++ [125]) = Ok items /\
    po_result (soy_file inlen lexq unq items) = POk (NList pos nodes) st /\
    Forall is_raw nodes /\ concat (map raw_text_of nodes) = s.
Proof.
  intros inlen lexq unq s Hcl. destruct tables_ascii as [Hl Hd]. destruct tables_eof as [El Ed].
  exact (cmd_alone_impl_spec is_letter_tbl is_digit_tbl Hl Hd El Ed inlen lexq unq (lit_name s, s) (cmd_ok_lit s Hcl)).
Qed.
Print Assumptions C15_literal_exact.

(* the opening tag written with blanks before its brace -- {literal  }s{/literal}, spaces and tabs (lexLiteral skips
   them; the "}" item then carries them in its text) -- is the same block: cmd_ok admits it everywhere a literal
   block may stand, in all the template-level theorems of this file *)
Theorem C15_literal_blanks_exact : forall inlen lexq unq sp s, Forall lit_blank sp -> lit_closed s ->
  exists items pos nodes st,
    lex_items is_letter_tbl is_digit_tbl (lex_budget ([123] ++ lit_name_sp sp s ++ [125])) false ([123] ++ lit_name_sp sp s ++ [125]) = Ok items /\
    po_result (soy_file inlen lexq unq items) = POk (NList pos nodes) st /\
    Forall is_raw nodes /\ concat (map raw_text_of nodes) = s.
Proof.
  intros inlen lexq unq sp s Hsp Hcl. destruct tables_ascii as [Hl Hd]. destruct tables_eof as [El Ed].
  exact (cmd_alone_impl_spec is_letter_tbl is_digit_tbl Hl Hd El Ed inlen lexq unq (lit_name_sp sp s, s)
           (or_intror (ex_intro _ sp (conj Hsp (conj eq_refl Hcl))))).
Qed.
Print Assumptions C15_literal_blanks_exact.
Example C15_ex_literal_blanks :
  [123] ++ lit_name_sp [32; 9] (b "{x} //") ++ [125] = b "{literal " ++ [9] ++ b "}{x} //{/literal}" /\
  match lex_items is_letter_tbl is_digit_tbl (lex_budget (b "{literal " ++ [9] ++ b "}{x} //{/literal}")) false (b "{literal " ++ [9] ++ b "}{x} //{/literal}") with
  | Ok items =>
      match po_result (soy_file 0 (fun _ => []) (fun _ => None) items) with
      | POk (NList _ nodes) _ => concat (map raw_text_of nodes) = b "{x} //"
      | _ => False
      end
  | _ => False
  end.
Proof. split; vm_compute; reflexivity. Qed.

(* ---- body_text_spec: bodies of text, comments, special-character commands and literal blocks ---- *)
(* For EVERY body  T0 {c1} T1 {c2} ... {cn} Tn  (source: body_src) in which every ci is a special-character command
   or a {literal} block (cmd_ok, as above) and every stretch Ti consists of plain bytes (no NUL, no brace) and MAY
   CONTAIN COMMENTS, under the Spec's one condition on their placement (mix_body_ok, Spec/TextMix.v): no "//"
   comment is still open where a tag begins (line_open = false for every stretch but the last; such a comment
   would run on through the tag to the end of the line -- C15_ex_line_comment_swallows_tag), and on which the
   Spec's text is defined (mix_body_out = Some out: every block comment closed, no soydoc opener): the scanner
   model run on the body as a file (lexText, lexLineComment, lexBlockComment with the look-behind for "//" --
   at the start of the input a comment, after "}" text --, the tag states, lexLiteral) returns an item list, and
   the parser model (SoyFile: itemList, textOrTag with its two comment flags whether the neighbour of a piece is a
   comment, a tag or the end of the input, beginTag's special-character and literal cases, rawtext) run on it under
   the entry point's own budget returns a list node whose children are all raw-text nodes and whose texts,
   concatenated, are   body_text true T0 ++ char(c1) ++ body_text false T1 ++ ... :  every stretch cut at its
   comments, every piece normalised separately with a comment as a flagged end and a tag / the end of the input
   as an unflagged one.  C15_body_text_spec_partial (no tags) and C15_body_special_chars_spec (no comments) are
   instances.  OTHER tags as neighbours of text (print, if, msg ...) are not part of this statement: print
   commands are C15_body_text_print_tags_spec, any tag as the neighbour of one stretch C15_stretch_any_neighbours. *)
Theorem C15_body_text_spec : forall inlen lexq unq T0 rest out,
  mix_body_ok T0 rest -> mix_body_out T0 rest = Some out ->
  exists items pos nodes st,
    lex_items is_letter_tbl is_digit_tbl (lex_budget (body_src T0 rest)) false (body_src T0 rest) = Ok items /\
    po_result (soy_file inlen lexq unq items) = POk (NList pos nodes) st /\
    Forall is_raw nodes /\ concat (map raw_text_of nodes) = out.
Proof.
  intros inlen lexq unq. destruct tables_ascii as [Hl Hd]. destruct tables_eof as [El Ed].
  exact (body_mix_impl_spec is_letter_tbl is_digit_tbl Hl Hd El Ed inlen lexq unq).
Qed.
Print Assumptions C15_body_text_spec.

(* ONE stretch between ANY two tags (print, if, msg, call ... whatever): the treatment of the text does not
   depend on what its neighbours are.  Scanner: from lexText at the first byte of a stretch T of plain bytes that
   is followed by tl (the "{" of any tag, or the end of the input), in ANY scanner state l (only the byte in front
   of T matters: pwof, "the previous byte is white space or T begins the input" -- false behind the "}" of a tag,
   pwof_after_brace), the scanner model sends the items its (text and comment items of T) and stops in
   lexLeftDelim in front of tl (or sends EOF and is done).  Parser: itemList of ANY enclosing command (any
   until-set without text / "{" / special-character / literal items -- every until-set of Model/Parser.v),
   under any budgets, in ANY parser state that delivers its followed by an item nx that is neither text nor
   comment ("{" or EOF), appends raw-text nodes whose texts, concatenated, are exactly the Spec's body_text of T
   and stands in front of nx (behind the comments that follow the last text, which the next tag skips).
   What this does NOT say: that the neighbouring tags parse -- that is C05 / C17's subject; with it, every stretch
   of a template is covered whatever its neighbours are (C15_body_text_spec / C15_template_body_text_spec are the
   whole-file statements for the tags whose parse is part of C15: special characters and literal blocks). *)
Theorem C15_stretch_any_neighbours : forall inp l T tl out,
  span inp l [] (T ++ tl) -> plain T -> tag_or_end tl ->
  body_text (pwof 0 l) T = Some out -> (tl <> [] -> line_open MText (pwof 0 l) T = false) ->
  exists k l' its st',
    steps is_letter_tbl is_digit_tbl inp 0 k LText l = Ok (st', l') /\ l_dd l' = l_dd l /\
    ((tl = [] /\ st' = LDone /\ exists e, t_typ e = itemEOF /\ l_out l' = e :: rev its ++ l_out l) \/
     (tl <> [] /\ st' = LLeftDelim /\ l_out l' = rev its ++ l_out l /\ span inp l' [] tl)) /\
    forall inlen lexq unq pexpr efuel pe w lf until,
      one_of pit_Text until = false -> one_of pit_LeftDelim until = false ->
      (forall t o, assoc t parser_special_chars = Some o -> one_of t until = false) -> one_of pit_Literal until = false ->
      forall nx rest acc pos s, t_typ nx <> pit_Text -> t_typ nx <> pit_Comment ->
      stream (c_p s) = its ++ nx :: rest -> inv (c_p s) -> (length its + 2 <= lf)%nat ->
      exists j pre' nodes pos' s', Forall is_comment pre' /\ Forall is_raw nodes /\ concat (map raw_text_of nodes) = out /\
        stream (c_p s') = pre' ++ nx :: rest /\ inv (c_p s') /\
        forall f, item_list_loop inlen lexq unq pexpr efuel pe w lf (j + f) until pos acc s
                = item_list_loop inlen lexq unq pexpr efuel pe w lf f until pos' (acc ++ nodes) s'.
Proof.
  destruct tables_ascii as [Hl Hd]. destruct tables_eof as [El Ed].
  exact (stretch_any_neighbours is_letter_tbl is_digit_tbl Hl Hd El Ed).
Qed.
Print Assumptions C15_stretch_any_neighbours.
(* non-vacuity: a stretch with a comment, at the start of the input, in front of {if $x}; its text is " ab " (the comment takes the line break with it) *)
Example C15_ex_stretch_before_if :
  let T := b " a //c" ++ [10] ++ b " b " in let tl := b "{if $x}y{/if}" in
  span (T ++ tl) lex_init [] (T ++ tl) /\ plain T /\ tag_or_end tl /\
  body_text (pwof 0 lex_init) T = Some (b " ab ") /\ line_open MText (pwof 0 lex_init) T = false.
Proof.
  cbv zeta. split; [unfold span, lex_init; cbn [l_start l_pos length]; repeat split; try lia|].
  split; [apply plain_forallb; vm_compute; reflexivity|].
  split; [right; eexists; reflexivity|]. split; vm_compute; reflexivity.
Qed.

(* non-vacuity: comments before and after tags, "//" after "}" (text) and at the start of the input (comment), an
   empty comment, a literal block with comment openers and braces, an open "//" comment in the last stretch *)
Definition c15_ex_mix : bstr * list seg :=
  (b "//c" ++ [10] ++ b "a /*c*/",
   [((b "sp", [32]), b "//t" ++ [10] ++ b " b //c" ++ [10]); ((b "lb", [123]), b "/*x*/ y /**/");
    ((lit_name (b "//{}"), b "//{}"), b " z //open")]).
Example C15_ex_body_mix :
  mix_body_ok (fst c15_ex_mix) (snd c15_ex_mix) /\
  body_src (fst c15_ex_mix) (snd c15_ex_mix) =
    b "//c" ++ [10] ++ b "a /*c*/{sp}//t" ++ [10] ++ b " b //c" ++ [10] ++ b "{lb}/*x*/ y /**/{literal}//{}{/literal} z //open" /\
  mix_body_out (fst c15_ex_mix) (snd c15_ex_mix) = Some (b "a //t b{y//{} z") /\
  match lex_items is_letter_tbl is_digit_tbl (lex_budget (body_src (fst c15_ex_mix) (snd c15_ex_mix))) false (body_src (fst c15_ex_mix) (snd c15_ex_mix)) with
  | Ok items =>
      match po_result (soy_file 0 (fun _ => []) (fun _ => None) items) with
      | POk (NList _ nodes) _ => Some (concat (map raw_text_of nodes)) = mix_body_out (fst c15_ex_mix) (snd c15_ex_mix)
      | _ => False
      end
  | _ => False
  end.
Proof.
  split.
  { unfold mix_body_ok, c15_ex_mix. cbn [fst snd mix_rest_ok].
    repeat split; try (apply plain_forallb; vm_compute; reflexivity); try (intros _; vm_compute; reflexivity); try (intros H; discriminate H).
    - left. vm_compute. auto 12.
    - left. vm_compute. auto 12.
    - apply cmd_ok_lit. intros r. vm_compute. reflexivity. }
  split; [vm_compute; reflexivity|]. split; [vm_compute; reflexivity|]. vm_compute. reflexivity.
Qed.

(* the Spec's condition is needed: a "//" comment that is open where a tag begins runs on through the tag -- the
   scanner sends ONE comment item for "//x{sp}b", no tag *)
Example C15_ex_line_comment_swallows_tag :
  line_open MText true (b "a //x") = true /\
  match lex_items is_letter_tbl is_digit_tbl (lex_budget (b "a //x{sp}b")) false (b "a //x{sp}b") with
  | Ok items => map (fun t => (t_typ t, t_val t)) items = [(itemText, b "a"); (itemComment, b "//x{sp}b"); (itemEOF, [])]
  | _ => False
  end.
Proof. split; vm_compute; reflexivity. Qed.

(* ---- text inside {template}: the statement about a whole minimal file ---- *)
(* For EVERY file   {template .name} T0 {c1} T1 ... {cn} Tn {/template}   (Spec/TextTemplate.v tpl_file) whose template
   name is an ASCII word, whose ci are special-character commands or {literal} blocks and whose stretches are plain
   bytes that may contain comments, no "//" comment being open where a tag begins -- here EVERY stretch is followed
   by a tag, the last one by {/template} (mix_tpl_ok) -- and on which the Spec's text is defined (mix_tpl_out):
   the scanner model run on the file (the template tag: lexLeftDelim, lexBeginTag, the keyword, the space, the
   dotted name, "}"; the body as in C15_body_text_spec; "{/template}": lexBeginTag's '/' case and lexIdent's
   closing-tag lookup; lexText at the end of the input) returns an item list, and the model of parse.SoyFile run
   on it under the entry point's own budget (itemList -> beginTag -> parseTemplate: the name, parseAttrs on no
   attribute, parseAutoescape's and boolAttr's defaults, itemList(itemTemplateEnd) one level down over the body,
   which stops at "{" "/template") returns a file whose one node is a template node whose body's children are all
   raw-text nodes and whose texts, concatenated, are   body_text false T0 ++ char(c1) ++ body_text false T1 ++ ...
   (the first stretch follows the "}" of the template tag: a leading "//" is text).  [inlen] is len(text); [lexq]
   (the nested scanner, never started here) is any scanner with well-formed items; [unq] is arbitrary.  The
   template's name, autoescape mode and privacy are not part of this statement (existentially quantified). *)
Theorem C15_template_body_text_spec : forall lexq unq name T0 rest out,
  lexq_wf lexq -> tpl_name_wf name -> mix_tpl_ok T0 rest -> mix_tpl_out T0 rest = Some out ->
  exists items pos tp nm ae pv bpos nodes st,
    lex_items is_letter_tbl is_digit_tbl (lex_budget (tpl_file name T0 rest)) false (tpl_file name T0 rest) = Ok items /\
    po_result (soy_file (N.of_nat (length (tpl_file name T0 rest))) lexq unq items)
      = POk (NList pos [NTemplate tp nm (NList bpos nodes) ae pv]) st /\
    Forall is_raw nodes /\ concat (map raw_text_of nodes) = out.
Proof.
  intros lexq unq name T0 rest out Hq. destruct tables_ascii as [Hl Hd]. destruct tables_eof as [El Ed].
  exact (template_body_impl_spec is_letter_tbl is_digit_tbl Hl Hd El Ed lexq unq Hq name T0 rest out).
Qed.
Print Assumptions C15_template_body_text_spec.

Definition c15_ex_tpl : bstr * list seg :=
  (b "//not a comment" ++ [10] ++ b "  a /*c*/ ", [((b "sp", [32]), b " b //c" ++ [10]); ((lit_name (b "{x}"), b "{x}"), [10] ++ b "  c" ++ [10])]).
Example C15_ex_template_body :
  tpl_name_wf (b "main") /\ mix_tpl_ok (fst c15_ex_tpl) (snd c15_ex_tpl) /\
  tpl_file (b "main") (fst c15_ex_tpl) (snd c15_ex_tpl) =
    b "{template .main}//not a comment" ++ [10] ++ b "  a /*c*/ {sp} b //c" ++ [10] ++ b "{literal}{x}{/literal}" ++ [10] ++ b "  c" ++ [10] ++ b "{/template}" /\
  mix_tpl_out (fst c15_ex_tpl) (snd c15_ex_tpl) = Some (b "//not a comment a  b{x}c") /\
  match lex_items is_letter_tbl is_digit_tbl (lex_budget (tpl_file (b "main") (fst c15_ex_tpl) (snd c15_ex_tpl))) false (tpl_file (b "main") (fst c15_ex_tpl) (snd c15_ex_tpl)) with
  | Ok items =>
      match po_result (soy_file (N.of_nat (length (tpl_file (b "main") (fst c15_ex_tpl) (snd c15_ex_tpl)))) (fun _ => []) (fun _ => None) items) with
      | POk (NList _ [NTemplate _ nm (NList _ nodes) _ _]) _ =>
          nm = b ".main" /\ Some (concat (map raw_text_of nodes)) = mix_tpl_out (fst c15_ex_tpl) (snd c15_ex_tpl)
      | _ => False
      end
  | _ => False
  end.
Proof.
  split; [split; vm_compute; reflexivity|].
  split.
  { unfold mix_tpl_ok, c15_ex_tpl. cbn [fst snd]. split; [split; [apply plain_forallb; vm_compute; reflexivity|intros _; vm_compute; reflexivity]|].
    constructor; [|constructor; [|constructor]]; cbn [fst snd].
    - split; [left; vm_compute; auto 12|split; [apply plain_forallb; vm_compute; reflexivity|intros _; vm_compute; reflexivity]].
    - split; [apply cmd_ok_lit; intros r; vm_compute; reflexivity|split; [apply plain_forallb; vm_compute; reflexivity|intros _; vm_compute; reflexivity]]. }
  split; [vm_compute; reflexivity|]. split; [vm_compute; reflexivity|]. vm_compute. split; reflexivity.
Qed.

(* non-vacuity: the hypotheses hold of "see http://x y", and scanner + parser models, run by computation on a
   text with both kinds of comment, give the Spec's text *)
Example C15_ex_http :
  plain (b "see http://x y") /\ pieces MText true [] (b "see http://x y") = Some [b "see http://x y"] /\
  droppable (b "see http://x y") = false.
Proof.
  split; [|split; vm_compute; reflexivity].
  unfold plain. apply Forall_forall. intros c Hc. vm_compute in Hc.
  repeat (destruct Hc as [<-|Hc]; [repeat split; discriminate|]). contradiction.
Qed.

Definition c15_ex_text : bstr := b "a //c" ++ [10] ++ b "b /* x */ see http://x c/*y*/".
Example C15_ex_body_text_impl :
  match lex_items is_letter_tbl is_digit_tbl (lex_budget c15_ex_text) false c15_ex_text with
  | Ok items =>
      match po_result (soy_file 0 (fun _ => []) (fun _ => None) items) with
      | POk (NList _ nodes) _ => Some (concat (map raw_text_of nodes)) = body_text true c15_ex_text
                                 /\ body_text true c15_ex_text = Some (b "absee http://x c")
      | _ => False
      end
  | _ => False
  end.
Proof. vm_compute. split; reflexivity. Qed.

(* template level, the Spec's body_text (the scanner and parser models are tied to it by
   C15_body_text_spec; C15_ex_body_text_impl above runs them): comments contribute nothing and cut the text into
   separately normalised pieces, http://x is not a comment *)
Example C15_ex_body_text :
  body_text false (b "a //c" ++ [10] ++ b "b /* x */ see http://x c/*y*/") = Some (b "absee http://x c")
  /\ body_text false (b "//not a comment after a tag") = Some (b "//not a comment after a tag")
  /\ body_text true (b "//comment at the very start" ++ [10] ++ b "x") = Some (b "x")
  /\ body_text false (b "a /**/ b") = Some (b "ab")
  /\ body_text false (b "a /* unclosed") = None.
Proof. repeat split; vm_compute; reflexivity. Qed.

(* a body with all seven commands, by computation: scanner and parser models give the Spec's text *)
Definition c15_ex_body : bstr * list seg :=
  (b "a  ", [((b "sp", [32]), b "b" ++ [10] ++ b " c"); ((b "\n", [10]), []); ((b "lb", [123]), b "x/y http://z");
             ((b "rb", [125]), []); ((b "nil", []), b " d"); ((b "\t", [9]), []); ((b "\r", [13]), b "e ");
             ((lit_name (b " {x} // /* " ++ [10]), b " {x} // /* " ++ [10]), b "f")]).
Example C15_ex_body_cmds :
  stretch_ok true (fst c15_ex_body) /\ Forall seg_ok (snd c15_ex_body) /\
  body_src (fst c15_ex_body) (snd c15_ex_body) = b "a  {sp}b" ++ [10] ++ b " c{\n}{lb}x/y http://z{rb}{nil} d{\t}{\r}e {literal} {x} // /* " ++ [10] ++ b "{/literal}f" /\
  body_out (fst c15_ex_body) (snd c15_ex_body) = b "a   b c" ++ [10] ++ b "{x/y http://z} d" ++ [9; 13] ++ b "e  {x} // /* " ++ [10] ++ b "f" /\
  match lex_items is_letter_tbl is_digit_tbl (lex_budget (body_src (fst c15_ex_body) (snd c15_ex_body))) false (body_src (fst c15_ex_body) (snd c15_ex_body)) with
  | Ok items =>
      match po_result (soy_file 0 (fun _ => []) (fun _ => None) items) with
      | POk (NList _ nodes) _ => concat (map raw_text_of nodes) = body_out (fst c15_ex_body) (snd c15_ex_body)
      | _ => False
      end
  | _ => False
  end.
Proof.
  split; [split; [apply plain_forallb; vm_compute; reflexivity|vm_compute; reflexivity]|].
  split.
  { apply Forall_forall. intros sg Hin. unfold c15_ex_body in Hin. cbn [snd In] in Hin.
    repeat (destruct Hin as [<-|Hin]; [split; [first [solve [left; vm_compute; auto 12] | apply cmd_ok_lit; intros r; vm_compute; reflexivity]|split; [apply plain_forallb; vm_compute; reflexivity|vm_compute; reflexivity]]|]).
    contradiction. }
  split; [vm_compute; reflexivity|]. split; [vm_compute; reflexivity|]. vm_compute. reflexivity.
Qed.

(* ---- body_text_spec with PRINT COMMANDS among the tags (Spec/TextTags.v) ----
   T0 tag1 T1 ... tagn Tn where every tag is a special-character command, a literal block, or a print command
   standing in the source as the text PrintNode.String() writes ({$x.k|d:1}); the print command n is well-formed
   and lexically well-formed (wf_print, lex_ok_print: C17's hypotheses); the stretches are plain bytes that may
   contain comments, under the Spec's condition that no "//" comment is open where a tag begins.  Scanner model
   on the whole text, then the model of parse.SoyFile under its own budget (inlen = len(text); the nested
   scanner is any scanner with well-formed items, never started on such a body): a list node whose children READ
   (c15_view0, positions erased by cps_strip) as the Spec says: the text before the first print command, then per
   print command its tree up to positions and the text up to the next one, where "text" is body_text of the
   stretches (a print command is an unflagged end like every tag; "//" behind its "}" is text) and the
   characters of the text tags in between.  So a print command is a neighbour of text like any other tag, and
   the children are exactly raw-text nodes and these print nodes, in order.
   Proof (Proofs/LexBodyTags.v, ParseBodyTags.v, BodyTagsMain.v): scanner per tag (lex_print for the expression);
   parser on the items with the print commands' positions erased, where beginTag's implicit-print case is C17's
   rule Tag_print at ONE budget for all levels: out of budget, or the Spec's reading; the totality of the entry
   point (C05) excludes the first; the position independence of successful runs (cps_body) brings the result
   back to the scanner's own items.  Other commands (if, for, msg, call ...) as neighbours: C15_stretch_any_neighbours. *)
Theorem C15_body_text_print_tags_spec : forall lexq unq T0 rest out,
  lexq_wf lexq -> c15_body_ok print_node T0 rest -> c15_lex_oks rest -> c15_body_out T0 rest = Some out ->
  exists items pos nodes st,
    lex_items is_letter_tbl is_digit_tbl (lex_budget (c15_body_src T0 rest)) false (c15_body_src T0 rest) = Ok items /\
    po_result (soy_file (N.of_nat (length (c15_body_src T0 rest))) lexq unq items) = POk (NList pos nodes) st /\
    c15_view0 (map cps_strip nodes) = out.
Proof.
  intros lexq unq T0 rest out Hq. destruct tables_ascii as [Hl Hd]. destruct tables_eof as [El Ed].
  exact (body_tags_impl_spec is_letter_tbl is_digit_tbl Hl Hd El Ed lexq unq Hq T0 rest out).
Qed.
Print Assumptions C15_body_text_print_tags_spec.

(* non-vacuity: text with comments around two print commands and a {sp}; "//" behind the "}" of a print command
   is text; the reading is computed by the models and is the Spec's *)
Definition c15_ex_tags : bstr * list c15_tseg :=
  (b " a //c" ++ [10],
   [(C15Print (NPrint 0 (NDataRef 0 (b "x") []) []) (b "{$x}"), b "//t" ++ [10] ++ b " b ");
    (C15Text (b "sp", [32]), b "/*z*/ c" ++ [10]);
    (C15Print (NPrint 0 (NDataRef 0 (b "y") [NAccKey 0 false (b "k")]) [NDirective 0 (b "d") [NInt 0 1]]) (b "{$y.k|d:1}"), b " e //open")]).
Example C15_ex_body_print_tags :
  c15_body_ok print_node (fst c15_ex_tags) (snd c15_ex_tags) /\ c15_lex_oks (snd c15_ex_tags) /\
  c15_body_src (fst c15_ex_tags) (snd c15_ex_tags) = b " a //c" ++ [10] ++ b "{$x}//t" ++ [10] ++ b " b {sp}/*z*/ c" ++ [10] ++ b "{$y.k|d:1} e //open" /\
  c15_body_out (fst c15_ex_tags) (snd c15_ex_tags) =
    Some (b " a", [(NPrint 0 (NDataRef 0 (b "x") []) [], b "//t b  c");
                   (NPrint 0 (NDataRef 0 (b "y") [NAccKey 0 false (b "k")]) [NDirective 0 (b "d") [NInt 0 1]], b " e")]) /\
  match lex_items is_letter_tbl is_digit_tbl (lex_budget (c15_body_src (fst c15_ex_tags) (snd c15_ex_tags))) false (c15_body_src (fst c15_ex_tags) (snd c15_ex_tags)) with
  | Ok items =>
      match po_result (soy_file 100 (fun _ => []) (fun _ => None) items) with
      | POk (NList _ nodes) _ => Some (c15_view0 (map cps_strip nodes)) = c15_body_out (fst c15_ex_tags) (snd c15_ex_tags)
      | _ => False
      end
  | _ => False
  end.
Proof.
  split.
  { unfold c15_body_ok, c15_ex_tags. cbn [fst snd c15_rest_ok c15_tag_ok].
    repeat split; try (apply plain_forallb; vm_compute; reflexivity); try (intros _; vm_compute; reflexivity); try (intros H; discriminate H);
      try (vm_compute; reflexivity); try exact I.
    left. vm_compute. auto 12. }
  split.
  { unfold c15_lex_oks, c15_ex_tags. cbn [snd]. repeat constructor; cbn [fst].
    exists 100, []. repeat split; try reflexivity; lia. }
  split; [vm_compute; reflexivity|]. split; [vm_compute; reflexivity|]. vm_compute. reflexivity.
Qed.

(* ---- the same INSIDE A TEMPLATE, as a theorem about a whole minimal file (Spec/TextTags.v c15_tpl_file) ----
   {template .name} T0 tag1 T1 ... tagn Tn {/template}  with print commands, special-character commands and literal
   blocks as tags; every stretch, the first and the last included, stands between two tags.  Scanner model on the
   file, model of parse.SoyFile under its own budget (itemList -> beginTag -> parseTemplate -> itemList(until
   {/template}) one level down, where beginTag's implicit-print case reads the print commands): a file whose one
   node is a template whose body's children read as the Spec says (c15_tpl_out).  The body loop is proved for an
   arbitrary until-set (Proofs/BodyTagsTpl.v gshapeT_run), the budget argument is the one of
   C15_body_text_print_tags_spec, carried through parseTemplate (tags_template_file_run). *)
Theorem C15_template_body_text_print_tags_spec : forall lexq unq name T0 rest out,
  lexq_wf lexq -> tpl_name_wf name -> c15_tpl_ok print_node T0 rest -> c15_lex_oks rest -> c15_tpl_out T0 rest = Some out ->
  exists items pos tp nm ae pv bpos nodes st,
    lex_items is_letter_tbl is_digit_tbl (lex_budget (c15_tpl_file name T0 rest)) false (c15_tpl_file name T0 rest) = Ok items /\
    po_result (soy_file (N.of_nat (length (c15_tpl_file name T0 rest))) lexq unq items)
      = POk (NList pos [NTemplate tp nm (NList bpos nodes) ae pv]) st /\
    c15_view0 (map cps_strip nodes) = out.
Proof.
  intros lexq unq name T0 rest out Hq. destruct tables_ascii as [Hl Hd]. destruct tables_eof as [El Ed].
  exact (template_body_tags_impl_spec is_letter_tbl is_digit_tbl Hl Hd El Ed lexq unq Hq name T0 rest out).
Qed.
Print Assumptions C15_template_body_text_print_tags_spec.

Definition c15_ex_tpl_tags : bstr * list c15_tseg :=
  ([10] ++ b "  Hello " ,
   [(C15Print (NPrint 0 (NDataRef 0 (b "name") []) [NDirective 0 (b "d") []]) (b "{$name|d}"), b "!//not a comment" ++ [10] ++ b "  /* c */");
    (C15Text (b "\n", [10]), [10] ++ b " bye" ++ [10])]).
Example C15_ex_template_print_tags :
  tpl_name_wf (b "t") /\ c15_tpl_ok print_node (fst c15_ex_tpl_tags) (snd c15_ex_tpl_tags) /\ c15_lex_oks (snd c15_ex_tpl_tags) /\
  c15_tpl_file (b "t") (fst c15_ex_tpl_tags) (snd c15_ex_tpl_tags) =
    b "{template .t}" ++ [10] ++ b "  Hello {$name|d}!//not a comment" ++ [10] ++ b "  /* c */{\n}" ++ [10] ++ b " bye" ++ [10] ++ b "{/template}" /\
  c15_tpl_out (fst c15_ex_tpl_tags) (snd c15_ex_tpl_tags) =
    Some (b "Hello ", [(NPrint 0 (NDataRef 0 (b "name") []) [NDirective 0 (b "d") []], b "!//not a comment" ++ [10] ++ b "bye")]) /\
  match lex_items is_letter_tbl is_digit_tbl (lex_budget (c15_tpl_file (b "t") (fst c15_ex_tpl_tags) (snd c15_ex_tpl_tags))) false (c15_tpl_file (b "t") (fst c15_ex_tpl_tags) (snd c15_ex_tpl_tags)) with
  | Ok items =>
      match po_result (soy_file 200 (fun _ => []) (fun _ => None) items) with
      | POk (NList _ [NTemplate _ _ (NList _ nodes) _ _]) _ => Some (c15_view0 (map cps_strip nodes)) = c15_tpl_out (fst c15_ex_tpl_tags) (snd c15_ex_tpl_tags)
      | _ => False
      end
  | _ => False
  end.
Proof.
  split; [split; vm_compute; reflexivity|].
  split.
  { unfold c15_tpl_ok, c15_ex_tpl_tags. cbn [fst snd]. split.
    - split; [apply plain_forallb; vm_compute; reflexivity|intros _; vm_compute; reflexivity].
    - apply Forall_cons; [|apply Forall_cons; [|apply Forall_nil]]; cbn [fst snd c15_tag_ok].
      + split; [split; [vm_compute; tauto|vm_compute; reflexivity]|split; [apply plain_forallb; vm_compute; reflexivity|intros _; vm_compute; reflexivity]].
      + split; [left; vm_compute; auto 12|split; [apply plain_forallb; vm_compute; reflexivity|intros _; vm_compute; reflexivity]]. }
  split.
  { unfold c15_lex_oks, c15_ex_tpl_tags. cbn [snd]. repeat constructor; cbn [fst].
    exists 100, []. repeat split; try reflexivity; lia. }
  split; [vm_compute; reflexivity|]. split; [vm_compute; reflexivity|]. vm_compute. reflexivity.
Qed.
