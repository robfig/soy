(* C14 — generated JavaScript is well-formed and preserves every literal.
   Model: Model/JsGen.v (soyjs.Write as a list of
   chunks, tied byte for byte to the real output by the correspondence);
   the ECMAScript string-literal reader is Spec/Codec.v (js_read_literal_q).
   The token grammar of the emitted JavaScript subset is Spec/JsSyntax.v
   (lexers, the recogniser js_parse, bracket_balanced); the files the grammar
   theorem talks about are those of Spec/JsShape.v (file_chk).  That grammar
   is a subset of ECMAScript by construction and by test against V8
   (go/cmd/soyverif/c14_wf.go), not by proof. *)
(* source tie by translation: the lemmas of these files are obligations of this property *)
From Soy Require Import Proofs.JsWfFlag.
From Soy Require Import Proofs.SourceTieJs Proofs.SourceTieJsScope Proofs.SourceTieJsText.
From Soy Require Import Model.Bytes Model.Num Model.Values Model.Outcome Model.Ast Model.Utf8 Model.JsEscape
  Generated.Tables Model.JsGen Spec.Codec Spec.JsOut Proofs.Utf8Proofs Proofs.CodecProofs
  Proofs.JsGenProofs Proofs.JsGenInv Proofs.JsGenLit Proofs.JsGenDef
  Spec.JsSyntax Spec.JsShape Proofs.JsWfBalance Proofs.JsWfFile Proofs.JsWfStr.
Open Scope N_scope.

(* ---------------- what the escaper guarantees for one literal ---------------- *)
(* A CStrLit chunk is rendered as quote, lit_body s, quote, where lit_body s is
   the escaper soy calls applied to s (C14_lit_body: text/template's JSEscape, or
   internal/jsescape when the tree under test calls that -- jsstr_pair_js is read
   from soyjs/exec.go by tablegen).  For valid UTF-8 -- and, only while the
   library's escaper is called, runes in the BMP or printable (lit_guard) -- the
   ECMAScript reader gives back exactly s -- in particular the body has no
   unescaped quote of its kind, no raw LF / CR / U+2028 / U+2029 and no dangling
   backslash (the reader rejects those) -- and, for EVERY s, the body contains no
   LF CR < > & = bytes, hence no "</" (so no "</script>"), no "<!--", no "-->",
   no "]]>". *)
Theorem C14_lit_body : forall s, lit_body s = js_escape_soy jsstr_pair_js is_print_tbl s.
Proof. exact lit_body_eq. Qed.
Print Assumptions C14_lit_body.

Theorem C14_strlit_denotes : forall q s, q = 39 \/ q = 34 -> lit_guard s ->
  render_chunk is_print_tbl (CStrLit q s) = q :: lit_body s ++ [q]
  /\ js_read_literal_q q (lit_body s) = Some s
  /\ Forall js_inert (lit_body s).
Proof. exact strlit_denotes. Qed.
Print Assumptions C14_strlit_denotes.

(* ---------------- every chunk of every generated file ---------------- *)
(* For every file, formatter, message bundle, map-order oracle and fuel: when
   the generator succeeds, each chunk is well-formed:
   - CText: the text belongs to a vocabulary fixed in advance (constants of
     the generator, indentation, operator symbols, the regenerated function /
     directive / formatter tables) -- it does not depend on the input, so no
     template-originated string reaches the output as generator text;
   - CStrLit: the quote is the single or the double quote;
   - CNum: a decimal integer or a float as ast.FloatNode.String prints it;
   - CFile (the name in the header comment) contains no line terminator. *)
Theorem C14_gen_chunks_wf : forall o fuel name body cs, gen_file o fuel name body = Ok cs -> Forall chunk_wf cs.
Proof. exact gen_chunks_wf. Qed.
Print Assumptions C14_gen_chunks_wf.

(* no template-originated byte reaches the output as generator text: every
   CText chunk of every generated file is in [in_vocabulary], a set of byte
   strings that mentions neither the file nor the options; template strings go
   through CStrLit (the escaper), identifiers through CName, numbers through
   CNum, the file name through CFile *)
Theorem C14_no_template_bytes_in_text : forall o fuel name body cs, gen_file o fuel name body = Ok cs ->
  forall c, In c cs ->
    match c with
    | CText t => in_vocabulary t
    | CStrLit q _ => q = 39 \/ q = 34
    | CName _ | CNum _ | CFile _ => True
    end.
Proof. exact no_template_bytes_in_text. Qed.
Print Assumptions C14_no_template_bytes_in_text.

(* the same for the walk of ANY node from ANY state (not only whole files): the
   emission sites below are therefore exhaustive -- whatever constructor carries
   a template string, walking it appends well-formed chunks only *)
Theorem C14_walk_chunks_wf : forall o fuel n st x st', jwalk o fuel n st = Ok (x, st') ->
  Forall (fun kv : bstr * list chunk => Forall chunk_wf (snd kv)) (j_called st) ->
  exists cs, j_out st' = rev cs ++ j_out st /\ Forall chunk_wf cs.
Proof. exact walk_chunks_wf. Qed.
Print Assumptions C14_walk_chunks_wf.

(* literals_denote: every template-originated string written anywhere in a
   generated file is a literal chunk that reads back as the original bytes *)
Theorem C14_literals_denote : forall o fuel name body cs, gen_file o fuel name body = Ok cs ->
  forall q s, In (CStrLit q s) cs -> lit_guard s ->
    (q = 39 \/ q = 34)
    /\ js_read_literal_q q (lit_body s) = Some s
    /\ Forall js_inert (lit_body s).
Proof. exact literals_denote. Qed.
Print Assumptions C14_literals_denote.

(* While the tree calls the library's escaper (jsstr_pair_js = false) the FULL
   statement (no guard on astral non-printable runes) is FALSE of the faithful
   model: text/template.JSEscape writes such a rune with five or six hex digits
   (finding js-literal-astral-nonprint-5hex).  With internal/jsescape
   (jsstr_pair_js = true) lit_guard is utf8_valid alone and the theorems above
   are the full statement. *)
Theorem C14_literals_astral_refuted : jsstr_pair_js = false ->
  exists s, utf8_valid s = true
            /\ render_chunk is_print_tbl (CStrLit 39 s) = [39; 92; 117; 70; 48; 48; 48; 48; 39]
            /\ js_read_literal_q 39 (lit_body s) <> Some s.
Proof. exact literals_astral_refuted. Qed.

(* the full statement, for a tree that calls internal/jsescape *)
Theorem C14_literals_denote_repaired : jsstr_pair_js = true ->
  forall o fuel name body cs, gen_file o fuel name body = Ok cs ->
  forall q s, In (CStrLit q s) cs -> utf8_valid s = true ->
    (q = 39 \/ q = 34)
    /\ js_read_literal_q q (lit_body s) = Some s
    /\ Forall js_inert (lit_body s).
Proof. exact literals_denote_repaired. Qed.
Print Assumptions C14_literals_denote_repaired.
Print Assumptions C14_literals_astral_refuted.

(* ---------------- the emission sites ---------------- *)
(* raw text, message html tags, css names, string literals, global string
   values, map keys and translation text are written as CStrLit chunks that
   carry exactly the original bytes *)
Theorem C14_site_raw_text : forall o w prev p t st,
  out_after (jwalk_node o w prev (NRawText p t)) st
  = Some (rev [CText (indent_text (j_indent st)); CName (j_buf st); CText t_pluseq; CStrLit 39 t; CText t_semi_nl] ++ j_out st).
Proof. exact site_raw_text. Qed.
Theorem C14_site_msg_html_tag : forall o w prev p t st,
  out_after (jwalk_node o w prev (NMsgHtmlTag p t)) st
  = Some (rev [CText (indent_text (j_indent st)); CName (j_buf st); CText t_pluseq; CStrLit 39 t; CText t_semi_nl] ++ j_out st).
Proof. exact site_msg_html_tag. Qed.
Theorem C14_site_css_suffix : forall o w prev p sfx st,
  out_after (jwalk_node o w prev (NCss p None sfx)) st
  = Some (rev [CText (indent_text (j_indent st)); CName (j_buf st); CText t_pluseq; CStrLit 39 sfx; CText t_semi_nl] ++ j_out st).
Proof. exact site_css_suffix. Qed.
Theorem C14_site_string_literal : forall o w prev p quoted v st,
  out_after (jwalk_node o w prev (NString p quoted v)) st = Some (CStrLit 39 v :: j_out st).
Proof. exact site_string_literal. Qed.
Theorem C14_site_global_string : forall o w prev p name s,
  jwalk_node o w prev (NGlobal p name (VStr s)) = w (NString p n_unused s).
Proof. exact site_global_string. Qed.
Theorem C14_site_map_key : forall w first k x r,
  map_items w first ((k, x) :: r)
  = jbind (if first then jret tt else jtxt t_comma)
      (fun _ => jbind (jemit [CStrLit 34 k; CText t_colon]) (fun _ => jbind (w x) (fun _ => map_items w false r))).
Proof. exact site_map_key. Qed.
Theorem C14_site_translation_text : forall w body t, jeval_part w body (JMRaw t) = write_raw_text t.
Proof. exact site_translation_text. Qed.
Print Assumptions C14_site_raw_text.

(* ---------------- one function per template ---------------- *)
(* gen_defines_templates: for a file whose top-level nodes are the namespace,
   soydoc comments and templates (no template or namespace node nested inside
   a template body), the function headers of the generated chunk list are
   exactly the file's templates, in order, under their qualified names (ES5)
   or ES6 identifiers (ES6), and the namespace-object declarations are exactly
   the dotted prefixes of the namespace, in order, before the first header. *)
Theorem C14_gen_defines_templates : forall o fuel name body cs, Forall top_ok body -> gen_file o fuel name body = Ok cs ->
  defined_names cs = map (fun t => fmt_bytes (fmt_template_name (o_fmt o)) t) (template_names body)
  /\ declared_objects cs = flat_map ns_prefix_list (namespace_names body).
Proof. exact gen_defines_templates. Qed.
Print Assumptions C14_gen_defines_templates.

(* the declared objects of a namespace are its dotted prefixes: the last one
   is the namespace itself and every declared name is a prefix of it *)
Theorem C14_ns_prefixes : forall name, name <> [] ->
  last (ns_prefix_list name) [] = name /\ Forall (fun p => exists k, p = take k name) (ns_prefix_list name).
Proof. exact ns_prefixes_spec. Qed.
Print Assumptions C14_ns_prefixes.

(* ---------------- non-vacuity ---------------- *)
Definition ex_opts : jopts := {| o_fmt := ES5; o_msgs := None; o_order := fun l => l |}.
Definition ex_body : list node := Eval vm_compute in
  [ NNamespace 0 (b "ns.a") 0; NSoyDoc 0 [];
    NTemplate 0 (b "ns.a.t")
      (NList 0 [NRawText 0 (b "it's </script>");
                NLetValue 0 (b "m") (NMapLit 0 [(b "a""b", NInt 0 1)]);
                NPrint 0 (NString 0 [] [226; 128; 168; 92]) []]) 0 false ].

(* the generated text of a small file: the raw text, the map key and the
   string literal (U+2028, backslash) are escaped; the literals satisfy the
   guard and read back; one function, two namespace objects *)
Example C14_nonvacuous :
  exists cs, gen_file ex_opts 50 (b "f.soy") ex_body = Ok cs
    /\ render_chunks is_print_tbl cs = b
"// This file was automatically generated from f.soy.
// Please don't edit this file by hand.

if (typeof ns == 'undefined') { var ns = {}; }
if (typeof ns.a == 'undefined') { ns.a = {}; }

ns.a.t = function(opt_data, opt_sb, opt_ijData) {
  var output = '';
  output += 'it\'s \u003C/script\u003E';
  var m_1 = {""a\""b"":1};
  output += soy.$$escapeHtml('\u2028\\');
  return output;
};
"
    /\ In (CStrLit 39 (b "it's </script>")) cs /\ In (CStrLit 34 (b "a""b")) cs /\ In (CStrLit 39 [226; 128; 168; 92]) cs
    /\ js_read_literal_q 34 (lit_body (b "a""b")) = Some (b "a""b")
    /\ js_read_literal_q 39 (lit_body [226; 128; 168; 92]) = Some [226; 128; 168; 92]
    /\ defined_names cs = [b "ns.a.t"] /\ declared_objects cs = [b "ns"; b "ns.a"].
Proof.
  eexists. split; [vm_compute; reflexivity|]. split; [vm_compute; reflexivity|].
  (* the three literal chunks, by their positions in the chunk list *)
  split; [apply nth_error_In with 38%nat; reflexivity|]. split; [apply nth_error_In with 45%nat; reflexivity|].
  split; [apply nth_error_In with 56%nat; reflexivity|].
  vm_compute. repeat split; reflexivity.
Qed.

Ltac reach_tac Hm :=
  apply reach_inv in Hm;
  let c := fresh "c" in let Hc := fresh "Hc" in
  destruct Hm as [->|(c & Hc & Hm)];
  [exact I | cbn in Hc; repeat (destruct Hc as [<-|Hc]; [reach_tac Hm|]); contradiction].

Lemma ex_body_top_ok : Forall top_ok ex_body.
Proof.
  unfold ex_body. repeat constructor; cbn [top_ok]; intros m Hm; reach_tac Hm.
Qed.

Example C14_guard_nonvacuous :
  lit_guard (b "it's </script>") /\ lit_guard (b "a""b") /\ lit_guard [226; 128; 168; 92] /\ Forall top_ok ex_body.
Proof.
  split; [apply lit_guard_b_ok; vm_compute; reflexivity|].
  split; [apply lit_guard_b_ok; vm_compute; reflexivity|].
  split; [apply lit_guard_b_ok; vm_compute; reflexivity|].
  exact ex_body_top_ok.
Qed.

(* the reader rejects what the escaper must prevent *)
Example C14_reader_rejects :
  js_read_literal_q 34 (b "a""b") = None /\ js_read_literal_q 39 (b "it's") = None
  /\ js_read_literal_q 39 [226; 128; 168] = None /\ js_read_literal_q 39 [97; 10] = None /\ js_read_literal_q 39 [92] = None.
Proof. vm_compute. repeat split; reflexivity. Qed.

(* ---------------- the generated file is a program of the token grammar ---------------- *)
(* FULL STATEMENT (not proved as such): for every file the Soy parser and checker accept, the BYTES soyjs.Write
   produces are a syntactically valid ECMAScript Script (ES5 formatter) / Module (ES6 formatter), with one function
   definition per template under its qualified name.

   PROVED, for every option record (formatter, message bundle, map-order oracle), fuel, file name and body: when the
   body passes the decidable shape check file_chk of Spec/JsShape.v (expressions where expressions are expected,
   names that are identifiers, the first namespace segment not reserved, finite floats, functions and directives soyjs
   knows -- their table texts are NOT assumed well formed, the check runs the recogniser over them with a hole per
   argument --, one default per switch; {msg} with and without a translation bundle, plurals included) and the
   generator model succeeds, then
     - the chunk list lexes (lex_chunks: every CText scanned byte by byte, a CStrLit one string token, a CName a
       dotted identifier, a CNum a signed number, the header a comment),
     - the recogniser js_parse of Spec/JsSyntax.v accepts the tokens (Script or Module according to the formatter),
     - the function definitions of the parse are exactly the file's templates, in order, under their qualified
       names (ES5) / ES6 identifiers,
     - the tokens are bracket balanced: every ) ] } closes the innermost open bracket, of its own kind,
     - and the BYTES of the file -- the rendering of the chunk list, for every predicate is_print that
       text/template.JSEscape may consult -- lex, with the byte lexer lex_bytes, to exactly these tokens: no two
       adjacent chunks share a token, no chunk boundary splits one (identifiers, numbers, punctuators by maximal
       munch, the header comment, string literals, the 'line break before' flag).  So the statement is about the
       file soyjs writes (the model's bytes are tied byte for byte to soyjs.Write by the correspondence).
   MISSING for the full statement: that the Soy parser's output satisfies file_chk -- the harness evaluates
   file_chk on every accepted file it generates and reports how many pass; and that the grammar is a subset of
   ECMAScript -- tested against V8 on the generated files and on mutants, no formal ECMAScript grammar exists here. *)
Theorem C14_gen_output_parses_partial : forall o fuel fk name body cs,
  file_chk (o_fmt o) fk body = true -> gen_file o fuel name body = Ok cs ->
  exists ts prog, lex_chunks cs = Some ts /\ js_parse (is_module (o_fmt o)) ts = Some prog
    /\ prog_funs prog = map (fname o) (template_names body) /\ bracket_balanced ts = true
    /\ forall is_print, lex_bytes (render_chunks is_print cs) = Some ts.
Proof. exact gen_file_parses. Qed.
Print Assumptions C14_gen_output_parses_partial.

(* the same, said of the bytes alone: the file soyjs writes lexes and parses, and defines its templates *)
Theorem C14_gen_bytes_parse_partial : forall o fuel fk name body cs is_print,
  file_chk (o_fmt o) fk body = true -> gen_file o fuel name body = Ok cs ->
  exists ts prog, lex_bytes (render_chunks is_print cs) = Some ts /\ js_parse (is_module (o_fmt o)) ts = Some prog
    /\ prog_funs prog = map (fname o) (template_names body) /\ bracket_balanced ts = true.
Proof.
  intros o fuel fk name body cs ip Hc Hg. destruct (gen_file_parses o fuel fk name body cs Hc Hg) as (ts & prog & _ & P & F & B & Y).
  exists ts, prog. auto.
Qed.
Print Assumptions C14_gen_bytes_parse_partial.

(* a token the lexers flagged 'line break before' is never part of an accepted token list: the restricted production
   (no line terminator before a postfix ++) is enforced by the recogniser, not by refusing the text in the lexer *)
Theorem C14_js_parse_unflagged : forall md ts p, js_parse md ts = Some p -> existsb tok_flagged ts = false.
Proof. exact js_parse_unflagged. Qed.
Print Assumptions C14_js_parse_unflagged.

(* whatever the recogniser accepts -- model tokens, tokens of real bytes, anything -- is bracket balanced *)
Theorem C14_js_parse_balanced : forall md ts p, js_parse md ts = Some p -> bracket_balanced ts = true.
Proof. exact js_parse_balanced. Qed.
Print Assumptions C14_js_parse_balanced.

(* a string literal as soyjs writes it -- quote, JSEscape of ANY byte string (valid UTF-8 or not, astral runes, quotes,
   backslashes, line terminators, </script>), quote -- followed by anything: the byte lexer reads exactly one string
   token and is back in normal mode right after the closing quote.  No template string can end its literal early or
   swallow the text that follows it.  (This is the CStrLit case of "lex_bytes of the rendered chunks = lex_chunks".) *)
Theorem C14_strlit_one_token : forall is_print q s rest, q = 39 \/ q = 34 ->
  lex_text 0 LNormal (render_chunk is_print (CStrLit q s) ++ rest)
  = option_map (fun '(ts, m) => (TStr :: ts, m)) (lex_text 0 LNormal rest).
Proof. intros is_print q s rest Hq. exact (strlit_one_token is_print q Hq s rest). Qed.
Print Assumptions C14_strlit_one_token.

(* non-vacuity: the example file passes the check, its chunks and its BYTES lex to the same tokens, the parse
   defines ns.a.t; and the recogniser rejects what JavaScript rejects: 5.length, a missing bracket, a second default *)
Example C14_grammar_nonvacuous :
  file_chk ES5 20 ex_body = true
  /\ (exists cs ts, gen_file ex_opts 50 (b "f.soy") ex_body = Ok cs /\ lex_chunks cs = Some ts
       /\ lex_bytes (render_chunks is_print_tbl cs) = Some ts
       /\ js_parse false ts = Some [DFun (b "ns.a.t")])
  /\ (exists ts, lex_bytes (b "x = a.length;") = Some ts /\ js_parse false ts = Some [])
  /\ (exists ts, lex_chunks [CName (b "x"); CText (b " = "); CNum (b "5"); CText (b ".length;")] = Some ts /\ js_parse false ts = None)
  /\ (exists ts, lex_bytes (b "x = 5.length;") = Some ts /\ js_parse false ts = None)
  /\ (exists ts, lex_bytes (b "x = f(a;") = Some ts /\ js_parse false ts = None)
  /\ (exists ts, lex_bytes (b "switch (x) { default: break; default: break; }") = Some ts /\ js_parse false ts = None)
  /\ (exists ts, lex_bytes (b "export function f(opt_data, opt_sb, opt_ijData) { return 1; };") = Some ts
       /\ js_parse false ts = None /\ js_parse true ts = Some [DFun (b "f")]).
Proof.
  split; [vm_compute; reflexivity|]. split; [eexists; eexists; split; [vm_compute; reflexivity|]; vm_compute; repeat split; reflexivity|].
  repeat split; try (eexists; split; [vm_compute; reflexivity|]; vm_compute; repeat split; reflexivity); vm_compute; reflexivity.
Qed.
