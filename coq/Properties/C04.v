(* C04 - the Go renderer and the generated JavaScript produce the same output.

   FULL statement (DESIGN section 4, C04):
     gen_correct : forall b t data ij, check b = Ok -> in_core b data ->
                   js_run (gen b) t data ij = render_impl b t data ij
   What is proved here are its stages.  The EXPRESSION stage (gen_expr_correct_partial): on the
   common subset of expressions (literals, data references with key / constant
   index access and null-safe access, $ij, unary minus, not, + - * % on
   integers within 2^53, + with a string side, comparisons on integers, == !=
   on operands of the same primitive kind, and / or on booleans, ?: and the
   ternary) the value the walker of Model/Interp.v computes is mapped by to_js
   to the value the generated JavaScript expression has in MiniJS, for every
   state / environment pair related by env_rel (each Soy variable is in the
   generated variable the generator's scope maps it to, or in opt_data).
   Of the STATEMENT stages print / if / let / switch / foreach / for-range / css and call (all forms: data, value and
   content parameters) are proved (below), and the template wrapper with a theorem for every template of a program built
   from these stages, and messages rendered without a bundle -- without plural, or one plural with numeric cases --, and ONE
   WHOLE FILE (C04_gen_file_correct_partial) and a registry of several files; messages from a bundle and nested plurals are NOT: they are covered by translation validation only
   (go/cmd/soyverif/c04.go: every generated program is translated by the real
   soyjs.Write, run by node with soyutils.js and compared with the Go render).
   The stages:
     gen_correct_partial_print  : ONE {print e|d..} with d over id / noAutoescape / escapeHtml, under any
                                  autoescape mode (implicit soy.$$escapeHtml included) -- proved below, for
                                  values whose String() has no NUL and no double quote (finding quote-entity);
     gen_correct_partial_stmt   : statements built from raw text, such prints, {let $x: e /}, {let $x}..{/let},
                                  {if}..{elseif}..{else}..{/if} and {switch}..{case v, w}..{default}..{/switch} with nested
                                  blocks (sequences) of such statements -- proved below as ONE simulation step over three
                                  sides (Interp walker, MiniJS execution, JsGen chunks) that re-establishes its own
                                  hypotheses; gen_correct_partial_if / _let / _let_content / _switch are its instances by name
     gen_correct_partial_loops  : {foreach $x in e}..{ifempty}..{/foreach} over a list value, with index($x) / isFirst($x) /
                                  isLast($x) of this and of enclosing loops anywhere in the body -- proved below as the
                                  same simulation step (the loop's frame on both sides, the generated xList_n / xLimit_n /
                                  xIndex_n / x_n variables, the freshness invariant through every round);
     gen_correct_partial_for_range : {for $x in range(n)} / range(a, n) / range(a, n, s) with a positive step and n - a within
                                  2^53, same loop functions -- proved below (xInit_n / xStep_n / xLimit_n =
                                  Math.max(0, Math.ceil((n - xInit_n) / xStep_n)), x_n = xInit_n + xIndex_n * xStep_n)
     gen_correct_partial_css    : {css sfx} / {css e, sfx} with a scalar e -- proved below (same step)
     gen_correct_partial_call   : {call t}, data="all", data="$e" (a map with identifier keys), {param k: e /} and
                                  {param k}..{/param} -- proved below: the same simulation step relative to a context that says
                                  what a callee writes on both sides, and (C04_go_call_correct, C04_js_call_correct) that
                                  context discharged for every program by induction on the call depth (recursion included)
     gen_correct_partial_template : the template wrapper (function header, opt_data defaulting, var output, return) and
                                  with it a theorem for every template of a program of the proved stages -- proved below
                                  (C04_gen_correct_partial_template; the entry point Execute: C04_go_render_correct)
     gen_file_correct_partial   : the FILE level (soyjs.Write = gen_file: header comment, namespace declarations, the chain of
                                  counters from one template to the next, no imports under the ES5 formatter) -- proved below
                                  for a registry that is one file of the subset; the reading of the emitted text as that
                                  function table by a JavaScript engine and the ES6 formatter are not part of it; C04_gen_registry_correct_partial
                                  is the same for a registry of several files (calls across files), the table being the
                                  union of the files' tables
     gen_correct_partial_msg    : {msg}..{/msg} without plural and without a bundle (raw text, print and call placeholders) -- proved
                                  below (same step); messages rendered from a translation bundle -- not proved
     gen_correct_partial_plural : {msg}{plural v}{case z}..{default}..{/plural}{/msg} without a bundle -- proved below: the
                                  plural is a statement of the subset's syntax (cstmt SMsgPl; its MiniJS statement JSPlural is
                                  executed as a switch and printed without "break;" after the default clause, as soyjs
                                  writes it), so the step is a case of C04_gen_correct_partial_stmt
                                  (C04_gen_correct_partial_plural_stmt) and templates with plural messages are programs of
                                  the file / registry theorems (C04_plural_file_nonvacuous); the formulation over
                                  lists of cases (C04_gen_correct_partial_plural) is tied to it by C04_plural_as_stmt
   MiniJS idealises JavaScript: numbers are integers (a result beyond 2^53 is
   OutOfModel), objects have no prototype chain, the operators are defined on
   the operand kinds of the subset only. *)
(* source tie by translation: the lemmas of these files are obligations of this property *)
From Soy Require Import Proofs.SourceTieJs Proofs.SourceTieJsScope Proofs.SourceTieJsText.
From Soy Require Import Model.Bytes Model.Num Model.Values Model.Outcome Model.Ast Model.JsGen Model.MiniJS
  Model.Escape Model.Directives Model.Print Generated.Tables Model.Interp
  Model.MiniJSProg Proofs.MiniJSProofs Proofs.MiniJSPrint Proofs.MiniJSStmt Proofs.MiniJSCtl Proofs.MiniJSGo Proofs.MiniJSGen Proofs.MiniJSSim Proofs.MiniJSCall Proofs.MiniJSFile Proofs.MiniJSPlural.
Open Scope N_scope.

(* the Soy meaning restricted to the subset IS the walker of Interp.v, and the
   generated JavaScript expression evaluates to the image of that value *)
Theorem C04_gen_expr_correct_partial : forall cf sc je st e fuel v,
  (cdepth e < fuel)%nat ->
  env_rel sc (c_ij cf) (sc_lookup (ctx st)) je ->
  ceval (c_ij cf) (sc_lookup (ctx st)) e = Some v ->
  (exists st', walk cf fuel (cnode e) st = (Ok v, st') /\ pres st st')
  /\ js_eval je (cgen sc e) = Ok (to_js v).
Proof. exact gen_expr_correct_partial. Qed.
Print Assumptions C04_gen_expr_correct_partial.

(* the two halves separately *)
Theorem C04_interp_ceval : forall cf st0,
  (forall k v, sc_lookup (ctx st0) k = Some v -> core_value v = true) ->
  (forall v, c_ij cf = Some v -> core_value v = true) ->
  forall e fuel st v, (cdepth e < fuel)%nat -> ctx st = ctx st0 ->
  ceval (c_ij cf) (sc_lookup (ctx st0)) e = Some v -> mok (walk cf fuel (cnode e)) st v.
Proof. exact interp_ceval. Qed.
Print Assumptions C04_interp_ceval.

Theorem C04_cgen_correct : forall sc ij env je, env_rel sc ij env je ->
  forall e v, ceval ij env e = Some v -> js_eval je (cgen sc e) = Ok (to_js v) /\ core_value v = true.
Proof. exact cgen_correct. Qed.
Print Assumptions C04_cgen_correct.

(* the MiniJS expression IS what the generator writes: walking the node of a
   subset expression in Model/JsGen.v appends exactly the printer's chunks
   (whose rendering is tied byte for byte to soyjs.Write by C14's correspondence) *)
(* [cwf lv e]: every loop function of e talks about a variable of lv; [lvok lv sc]: each of these has a loop frame in the
   generator's scope (otherwise soyjs reports an error instead of writing code) *)
Theorem C04_cgen_print : forall o e lv fuel st, (cdepth e < fuel)%nat -> cwf lv e = true -> lvok lv (j_scope st) ->
  jwalk o fuel (cnode e) st = Ok (tt, st_after st (jprint (cgen (j_scope st) e))).
Proof. exact cgen_print. Qed.
Print Assumptions C04_cgen_print.

(* the print stage, for one statement: with autoescaping off, no obligatory
   directives and a writer that does not fail, {print e} makes the Go renderer
   write exactly the text that the generated statement  buf += <expr>;  appends
   to the buffer variable; and that statement is what JsGen emits *)
Theorem C04_gen_correct_partial_print : forall cf sc je st e fuel v buf old,
  c_oblig cf = [] -> mode st = 2 -> bufs st = [] -> calls_left st = None -> bytes_left st = None ->
  (S (cdepth e) < fuel)%nat ->
  env_rel sc (c_ij cf) (sc_lookup (ctx st)) je ->
  ceval (c_ij cf) (sc_lookup (ctx st)) e = Some v -> printable_scalar v = true ->
  assoc_s buf (je_vars je) = Some (JStr old) ->
  exists s,
    (exists st', walk cf fuel (NPrint 0 (cnode e) []) st = (Ok VUndef, st')
                 /\ out st' = s :: out st /\ ctx st' = ctx st /\ mode st' = mode st)
    /\ (exists je', js_append je buf (cgen sc e) = Ok (s, je')
                    /\ assoc_s buf (je_vars je') = Some (JStr (old ++ s)) /\ je_data je' = je_data je).
Proof. exact gen_correct_partial_print. Qed.
Print Assumptions C04_gen_correct_partial_print.

Theorem C04_cgen_print_stmt : forall o e lv fuel st, j_auto st = 2 -> (S (cdepth e) < fuel)%nat -> cwf lv e = true -> lvok lv (j_scope st) ->
  jwalk o fuel (NPrint 0 (cnode e) []) st
  = Ok (tt, st_after st ([CText (indent_text (j_indent st)); CName (j_buf st); CText t_pluseq]
                         ++ jprint (cgen (j_scope st) e) ++ [CText t_semi_nl])).
Proof. exact cgen_print_stmt. Qed.
Print Assumptions C04_cgen_print_stmt.

(* the print stage with escaping and a directive chain: for {print e|d1|d2..} with the directives id,
   noAutoescape, escapeHtml (all the directives of the common subset whose encoding does not differ), under
   ANY autoescape mode: the concatenation of the Write calls of the Go renderer's model is the text that the
   generated statement  buf += soy.$$escapeHtml(..(<expr>)..);  appends -- provided String() of the value
   contains no NUL and no double quote (there the escapers differ: finding quote-entity) *)
Theorem C04_gen_correct_partial_print_esc : forall cf sc je st e ds fuel v buf old,
  c_oblig cf = [] -> bufs st = [] -> calls_left st = None -> bytes_left st = None ->
  (S (cdepth e) < fuel)%nat ->
  env_rel sc (c_ij cf) (sc_lookup (ctx st)) je ->
  ceval (c_ij cf) (sc_lookup (ctx st)) e = Some v -> printable_scalar v = true ->
  (forall s, value_string v = Ok s -> clean s) ->
  assoc_s buf (je_vars je) = Some (JStr old) ->
  exists text,
    (exists st' ws, walk cf fuel (NPrint 0 (cnode e) (map pdir_node ds)) st = (Ok VUndef, st')
                    /\ out st' = rev ws ++ out st /\ concat_b ws = text /\ ctx st' = ctx st /\ mode st' = mode st)
    /\ (exists je', js_append je buf (cgen_print_expr (mode st) ds (cgen sc e)) = Ok (text, je')
                    /\ assoc_s buf (je_vars je') = Some (JStr (old ++ text)) /\ je_data je' = je_data je).
Proof. exact gen_correct_partial_print_esc. Qed.
Print Assumptions C04_gen_correct_partial_print_esc.

(* ... and that statement is what JsGen writes (every formatter, every state) *)
Theorem C04_cgen_print_dirs : forall o e ds lv fuel st, (S (cdepth e) < fuel)%nat -> cwf lv e = true -> lvok lv (j_scope st) ->
  exists stf, jwalk o fuel (NPrint 0 (cnode e) (map pdir_node ds)) st = Ok (tt, stf)
    /\ j_out stf = rev ([CText (indent_text (j_indent st)); CName (j_buf st); CText t_pluseq]
                        ++ jprint (cgen_print_expr (j_auto st) ds (cgen (j_scope st) e)) ++ [CText t_semi_nl]) ++ j_out st
    /\ j_indent stf = j_indent st /\ j_buf stf = j_buf st /\ j_scope stf = j_scope st /\ j_auto stf = j_auto st /\ j_n stf = j_n st.
Proof. exact cgen_print_dirs. Qed.
Print Assumptions C04_cgen_print_dirs.

(* on clean text the escapers of the two backends agree *)
Theorem C04_print_text_agree : forall mode ds s, clean s -> js_print_text mode ds s = go_print_text mode ds s.
Proof. exact print_text_agree. Qed.

(* the statement stages: raw text, {print e|ds}, {let $x: e /}, {if}/{elseif}/{else} and {switch}/{case}/{default},
   with nested blocks.  One simulation step:
   A statement is relative to a context cc (callctx: the data of the template being rendered -- what data="all" passes
   on --, the text a callee writes for given data, the JavaScript function of a callee, a fuel that suffices for every
   call); callctx_ok says the context is right on both sides (for a program: C04_go_call_correct / C04_js_call_correct
   below; cc_nocalls for statements without calls) and that the generator calls a template by its own name (the ES5
   formatter: cn_ok).
   HYPOTHESES (the relation sim between a state st of the Go renderer's model, a JavaScript environment je and a
   state jst of the generator): the writer does not fail (no capture buffer, no write budget); the innermost frame of
   the scope stack is not the entered one and the frames alldata() returns hold the template's data (dinv), which is
   also what opt_data holds (datarel); every Soy variable is where the generator's scope says it is (env_rel); the generated names in scope and
   the buffer variable have counters up to the generator's counter, and the buffer variable is none of them and not
   opt_ijData (ginv); the buffer variable holds old; the generator's autoescape mode is the renderer's.
   [sout] is the subset semantics: the bytes written and the environment afterwards (None = error or outside the subset).
   [swf lv s] is the static condition under which the generator does not report an error: binders are identifiers, every
   loop function names the variable of an enclosing loop (those of the context are lv, each with a loop frame: lvok).
   CONCLUSION, whenever sout gives (text, env'):
   (Go)  the Interp walker writes exactly text, keeps mode, keeps the frames below the innermost one, and a lookup
         afterwards gives env';
   (JS)  executing the MiniJS statement (sgen ..) succeeds;
   (Gen) walking the same node in JsGen emits exactly the chunks of that MiniJS statement at the current indentation;
   and the three resulting states satisfy the hypotheses again, with old ++ text in the buffer variable. *)
Theorem C04_gen_correct_partial_stmt : forall cf o cc lv st je jst s fuel text env' old,
  c_oblig cf = [] -> callctx_ok cf o cc -> (cc_fuel cc + sdepth s < fuel)%nat ->
  swf lv s = true -> lvok lv (j_scope jst) ->
  bufs st = [] -> calls_left st = None -> bytes_left st = None -> dinv (cc_denv cc) (ctx st) ->
  env_rel (j_scope jst) (c_ij cf) (sc_lookup (ctx st)) je ->
  datarel (cc_denv cc) (je_data je) ->
  ginv (j_scope jst) (j_n jst) (j_buf jst) ->
  assoc_s (j_buf jst) (je_vars je) = Some (JStr old) ->
  j_auto jst = mode st ->
  sout (c_ij cf) (mode st) go_print_text (cc_denv cc) (cc_callee cc) (sc_lookup (ctx st)) s = Some (text, env') ->
  exists st' ws rv je' jst',
    let j := fst (sgen (mode st) (j_buf jst) (j_scope jst) (j_n jst) s) in
    walk cf fuel (snode s) st = (Ok rv, st') /\ out st' = rev ws ++ out st /\ concat_b ws = text
    /\ mode st' = mode st /\ tl (ctx st') = tl (ctx st) /\ (forall k, sc_lookup (ctx st') k = env' k)
    /\ js_exec (cc_jfn cc) je j = Ok je' /\ je_data je' = je_data je
    /\ jwalk o fuel (snode s) jst = Ok (tt, jst') /\ j_out jst' = rev (sprint (j_indent jst) j) ++ j_out jst
    /\ j_indent jst' = j_indent jst /\ j_buf jst' = j_buf jst /\ tl (j_scope jst') = tl (j_scope jst)
    /\ bufs st' = [] /\ calls_left st' = None /\ bytes_left st' = None /\ dinv (cc_denv cc) (ctx st')
    /\ env_rel (j_scope jst') (c_ij cf) (sc_lookup (ctx st')) je'
    /\ datarel (cc_denv cc) (je_data je')
    /\ ginv (j_scope jst') (j_n jst') (j_buf jst')
    /\ assoc_s (j_buf jst') (je_vars je') = Some (JStr (old ++ text))
    /\ j_auto jst' = mode st' /\ lvok lv (j_scope jst').
Proof. exact gen_correct_partial_stmt_unfolded. Qed.
Print Assumptions C04_gen_correct_partial_stmt.

(* its instances by stage name ([sim] is the conjunction of the hypotheses above, [sim_step] the conclusion above, both
   for any writer that does not fail: the output without a budget, or a capture buffer of renderBlock -- [wrote st st' ws]
   says the writes ws went to the innermost capture buffer if there is one, to the output otherwise) *)
Theorem C04_gen_correct_partial_if : forall cf o cc lv st je jst c th rest fuel text env' old,
  c_oblig cf = [] -> callctx_ok cf o cc -> (cc_fuel cc + sdepth (SIf c th rest) < fuel)%nat -> sim cf cc st je jst old ->
  swf lv (SIf c th rest) = true -> lvok lv (j_scope jst) ->
  sout (c_ij cf) (mode st) go_print_text (cc_denv cc) (cc_callee cc) (sc_lookup (ctx st)) (SIf c th rest) = Some (text, env') ->
  sim_step cf o cc lv st je jst (SIf c th rest) fuel text env' old.
Proof. intros cf o cc lv st je jst c th rest fuel text env' old. apply gen_correct_partial_stmt. Qed.
Print Assumptions C04_gen_correct_partial_if.
Theorem C04_gen_correct_partial_let : forall cf o cc lv st je jst name e fuel text env' old,
  c_oblig cf = [] -> callctx_ok cf o cc -> (cc_fuel cc + sdepth (SLet name e) < fuel)%nat -> sim cf cc st je jst old ->
  swf lv (SLet name e) = true -> lvok lv (j_scope jst) ->
  sout (c_ij cf) (mode st) go_print_text (cc_denv cc) (cc_callee cc) (sc_lookup (ctx st)) (SLet name e) = Some (text, env') ->
  sim_step cf o cc lv st je jst (SLet name e) fuel text env' old.
Proof. intros cf o cc lv st je jst name e fuel text env' old. apply gen_correct_partial_stmt. Qed.
Print Assumptions C04_gen_correct_partial_let.
(* {let $x}..{/let}: the Go renderer captures the block in a buffer of its own (renderBlock) and binds the string; the
   JavaScript declares  var x_n = '';  lets the block append to it, and binds the name afterwards *)
Theorem C04_gen_correct_partial_let_content : forall cf o cc lv st je jst name body fuel text env' old,
  c_oblig cf = [] -> callctx_ok cf o cc -> (cc_fuel cc + sdepth (SLetC name body) < fuel)%nat -> sim cf cc st je jst old ->
  swf lv (SLetC name body) = true -> lvok lv (j_scope jst) ->
  sout (c_ij cf) (mode st) go_print_text (cc_denv cc) (cc_callee cc) (sc_lookup (ctx st)) (SLetC name body) = Some (text, env') ->
  sim_step cf o cc lv st je jst (SLetC name body) fuel text env' old.
Proof. intros cf o cc lv st je jst name body fuel text env' old. apply gen_correct_partial_stmt. Qed.
Print Assumptions C04_gen_correct_partial_let_content.
Theorem C04_gen_correct_partial_switch : forall cf o cc lv st je jst v cs fuel text env' old,
  c_oblig cf = [] -> callctx_ok cf o cc -> (cc_fuel cc + sdepth (SSwitch v cs) < fuel)%nat -> sim cf cc st je jst old ->
  swf lv (SSwitch v cs) = true -> lvok lv (j_scope jst) ->
  sout (c_ij cf) (mode st) go_print_text (cc_denv cc) (cc_callee cc) (sc_lookup (ctx st)) (SSwitch v cs) = Some (text, env') ->
  sim_step cf o cc lv st je jst (SSwitch v cs) fuel text env' old.
Proof. intros cf o cc lv st je jst v cs fuel text env' old. apply gen_correct_partial_stmt. Qed.
Print Assumptions C04_gen_correct_partial_switch.

(* the loop stage: {foreach $x in e}body{ifempty}ie{/foreach}, e a list value shorter than 2^53, with the loop functions
   index($y) / isFirst($y) / isLast($y) (expressions CLoop) of this loop and of the enclosing ones anywhere inside.
   Go: a frame with $x, $x.index, $x.lastIndex, the body a block per round; JavaScript:
     var xList_n = e; var xLimit_n = xList_n.length; [if (xLimit_n > 0) {] for (var xIndex_n = 0; xIndex_n < xLimit_n; xIndex_n++) {
     var x_n = xList_n[xIndex_n]; body } [} else { ie }]
   whose MiniJS meaning re-reads the index and the limit each time round (js_for); the generated names of every round's
   body are fresh with respect to the four loop variables (the frame property of C04_js_exec_correct) *)
Theorem C04_gen_correct_partial_loops : forall cf o cc lv st je jst x e body hasie ie fuel text env' old,
  c_oblig cf = [] -> callctx_ok cf o cc -> (cc_fuel cc + sdepth (SFor x e body hasie ie) < fuel)%nat -> sim cf cc st je jst old ->
  swf lv (SFor x e body hasie ie) = true -> lvok lv (j_scope jst) ->
  sout (c_ij cf) (mode st) go_print_text (cc_denv cc) (cc_callee cc) (sc_lookup (ctx st)) (SFor x e body hasie ie) = Some (text, env') ->
  sim_step cf o cc lv st je jst (SFor x e body hasie ie) fuel text env' old.
Proof. intros cf o cc lv st je jst x e body hasie ie fuel text env' old. apply gen_correct_partial_stmt. Qed.
Print Assumptions C04_gen_correct_partial_loops.

(* {for $x in range(..)} with one to three arguments of the expression subset (integers), a positive step, limit - init
   within 2^53: the list the renderer builds (range_list, any sufficient fuel) has Math.max(0, Math.ceil((limit - init) / step))
   elements init + k * step, which is what the generated counting loop binds x_n to *)
Theorem C04_gen_correct_partial_for_range : forall cf o cc lv st je jst x a1 rest body hasie ie fuel text env' old,
  c_oblig cf = [] -> callctx_ok cf o cc -> (cc_fuel cc + sdepth (SForRange x a1 rest body hasie ie) < fuel)%nat -> sim cf cc st je jst old ->
  swf lv (SForRange x a1 rest body hasie ie) = true -> lvok lv (j_scope jst) ->
  sout (c_ij cf) (mode st) go_print_text (cc_denv cc) (cc_callee cc) (sc_lookup (ctx st)) (SForRange x a1 rest body hasie ie) = Some (text, env') ->
  sim_step cf o cc lv st je jst (SForRange x a1 rest body hasie ie) fuel text env' old.
Proof. intros cf o cc lv st je jst x a1 rest body hasie ie fuel text env' old. apply gen_correct_partial_stmt. Qed.
Print Assumptions C04_gen_correct_partial_for_range.

(* {css sfx} / {css e, sfx} (e of the expression subset with a scalar value): one Write of String(e) + "-" + sfx on the Go
   side, the two statements  buf += e + '-';  buf += 'sfx';  on the JavaScript side *)
Theorem C04_gen_correct_partial_css : forall cf o cc lv st je jst e sfx fuel text env' old,
  c_oblig cf = [] -> callctx_ok cf o cc -> (cc_fuel cc + sdepth (SCss e sfx) < fuel)%nat -> sim cf cc st je jst old ->
  swf lv (SCss e sfx) = true -> lvok lv (j_scope jst) ->
  sout (c_ij cf) (mode st) go_print_text (cc_denv cc) (cc_callee cc) (sc_lookup (ctx st)) (SCss e sfx) = Some (text, env') ->
  sim_step cf o cc lv st je jst (SCss e sfx) fuel text env' old.
Proof. intros cf o cc lv st je jst e sfx fuel text env' old. apply gen_correct_partial_stmt. Qed.
Print Assumptions C04_gen_correct_partial_css.

(* the JavaScript side alone says more: every variable other than the buffer whose name, read as a generated name,
   has a counter up to the generator's is left alone (so nothing an enclosing block relies on is overwritten) *)
Theorem C04_js_exec_correct : forall ij mode denv callee jfn buf s sc n env je old text env' j sc' n',
  js_callee_ok ij callee jfn ->
  ginv sc n buf -> sout ij mode go_print_text denv callee env s = Some (text, env') ->
  env_rel sc ij env je -> assoc_s buf (je_vars je) = Some (JStr old) -> datarel denv (je_data je) ->
  sgen mode buf sc n s = (j, (sc', n')) ->
  exists je', js_exec jfn je j = Ok je'
    /\ (env_rel sc' ij env' je' /\ assoc_s buf (je_vars je') = Some (JStr (old ++ text)))
    /\ (je_data je' = je_data je
        /\ forall g, bounded n g -> bstr_eqb g buf = false -> assoc_s g (je_vars je') = assoc_s g (je_vars je)).
Proof. exact js_exec_stmt. Qed.
Print Assumptions C04_js_exec_correct.

(* ---------------- non-vacuity ---------------- *)
(* $a?.b + 2 * $x  with  a = {b: 5} in opt_data and x bound by a let (generated variable x3) *)
Definition ex_e : cexpr :=
  CBin OAdd (CVar (b "a") [CAKey true (b "b")]) (CBin OMul (CInt 2) (CVar (b "x") [])).
Definition ex_sc : list (list (bstr * bstr)) := [[(b "x", b "x3")]].
Definition ex_env (k : bstr) : option value :=
  if bstr_eqb k (b "a") then Some (VMap 7 [(b "b", VInt 5)]) else if bstr_eqb k (b "x") then Some (VInt 4) else None.
Definition ex_je : jenv :=
  {| je_vars := [(b "x3", JNum 4)]; je_data := JObj [(b "a", JObj [(b "b", JNum 5)])] |}.

Example C04_nonvacuous :
  ceval None ex_env ex_e = Some (VInt 13)
  /\ js_eval ex_je (cgen ex_sc ex_e) = Ok (JNum 13)
  /\ render_chunks is_print_tbl (jprint (cgen ex_sc ex_e)) = b "((((opt_data.a == null) ? null : opt_data.a.b)) + (((2) * (x3))))"
  /\ js_eval {| je_vars := []; je_data := JObj [] |} (cgen [[]] (CVar (b "a") [CAKey false (b "b")])) = Err je_type
  /\ ceval None (fun _ => None) (CVar (b "a") [CAKey false (b "b")]) = None
  /\ ceval None ex_env (CBin OMul (CInt 9007199254740992) (CInt 2)) = None.
Proof. vm_compute. repeat split; reflexivity. Qed.

Example C04_print_nonvacuous :
  js_append {| je_vars := [(b "output", JStr (b "ab")); (b "x3", JNum 4)]; je_data := JObj [(b "a", JObj [(b "b", JNum 5)])] |}
            (b "output") (cgen ex_sc ex_e)
  = Ok (b "13", {| je_vars := [(b "output", JStr (b "ab13")); (b "x3", JNum 4)]; je_data := JObj [(b "a", JObj [(b "b", JNum 5)])] |})
  /\ printable_scalar (VInt 13) = true.
Proof. vm_compute. split; reflexivity. Qed.

Example C04_print_esc_nonvacuous :
  let je := {| je_vars := [(b "output", JStr (b "ab")); (b "x3", JNum 4)]; je_data := JObj [(b "a", JObj [(b "b", JStr (b "1<2 & it's"))])] |} in
  let e := CVar (b "a") [CAKey false (b "b")] in
  js_append je (b "output") (cgen_print_expr 1 [] (cgen ex_sc e)) = Ok (b "1&lt;2 &amp; it&#39;s", {| je_vars := [(b "output", JStr (b "ab1&lt;2 &amp; it&#39;s")); (b "x3", JNum 4)]; je_data := je_data je |})
  /\ go_print_text 1 [] (b "1<2 & it's") = b "1&lt;2 &amp; it&#39;s"
  /\ go_print_text 1 [PEscapeHtml; PId] (b "1<2") = b "1&lt;2" /\ js_print_text 3 [PNoAutoescape] (b "1<2") = b "1<2"
  /\ js_print_text 1 [] (b "q""q") = b "q&quot;q" /\ go_print_text 1 [] (b "q""q") = b "q&#34;q".
Proof. vm_compute. repeat split; reflexivity. Qed.

(* {if true}
     {if $x > 3}{let $y: $x + 1 /}A{let $t}<{$y}{/let}{$t}{elseif $x > 1}E{else}B{/if}
     {switch $x}{case 1, 2}one{case 4}{let $z: 'four' /}{$z}{$a.b}{default}d{/switch}
     C
   {/if}            with x = 4 (generated variable x_3, counter 3), a.b = 5 *)
Definition ex_sc2 : list (list (bstr * bstr)) := [[(b "x", b "x_3")]].
Definition ex_stmt : cstmt :=
  SIf (CBool true)
      (BCons (SIf (CBin OGt (CVar (b "x") []) (CInt 3))
                  (BCons (SLet (b "y") (CBin OAdd (CVar (b "x") []) (CInt 1))) (BCons (SRaw (b "A")) (BCons (SLetC (b "t") (BCons (SRaw (b "<")) (BCons (SPrint (CVar (b "y") []) []) BNil))) (BCons (SPrint (CVar (b "t") []) []) BNil))))
                  (EElif (CBin OGt (CVar (b "x") []) (CInt 1)) (BCons (SRaw (b "E")) BNil) (EElse (BCons (SRaw (b "B")) BNil))))
      (BCons (SSwitch (CVar (b "x") [])
                (KCase (CInt 1) [CInt 2] (BCons (SRaw (b "one")) BNil)
                (KCase (CInt 4) [] (BCons (SLet (b "z") (CStr (b "four"))) (BCons (SPrint (CVar (b "z") []) []) (BCons (SPrint (CVar (b "a") [CAKey false (b "b")]) []) BNil)))
                (KDefault (BCons (SRaw (b "d")) BNil)))))
      (BCons (SRaw (b "C")) BNil))) ENone.
Example C04_stmt_nonvacuous :
  (match sout None 1 go_print_text (fun _ => None) (fun _ _ => None) ex_env ex_stmt with Some (t, _) => Some t | None => None end) = Some (b "A&lt;5four5C")
  /\ snd (sgen 1 (b "output") ex_sc2 3 ex_stmt) = (ex_sc2, 6)
  /\ (match js_exec (fun _ _ _ => OutOfModel) {| je_vars := [(b "output", JStr []); (b "x_3", JNum 4)]; je_data := JObj [(b "a", JObj [(b "b", JNum 5)])] |}
                     (fst (sgen 1 (b "output") ex_sc2 3 ex_stmt)) with
      | Ok je' => Some (je_vars je') | _ => None end)
     = Some [(b "output", JStr (b "A&lt;5four5C")); (b "x_3", JNum 4); (b "y_4", JNum 5); (b "t_5", JStr (b "<5")); (b "z_6", JStr (b "four"))]
  /\ render_chunks is_print_tbl (sprint 1 (fst (sgen 1 (b "output") ex_sc2 3 ex_stmt))) = b
"  if (true) {
    if (((x_3) > (3))) {
      var y_4 = ((x_3) + (1));
      output += 'A';
      var t_5 = '';
      t_5 += '\u003C';
      t_5 += soy.$$escapeHtml(y_4);
      output += soy.$$escapeHtml(t_5);
    } else if (((x_3) > (1))) {
      output += 'E';
    } else {
      output += 'B';
    }
    switch (x_3) {
      case 1:
      case 2:
        output += 'one';
        break;
      case 4:
        var z_6 = 'four';
        output += soy.$$escapeHtml(z_6);
        output += soy.$$escapeHtml(opt_data.a.b);
        break;
      default:
        output += 'd';
        break;
    }
    output += 'C';
  }
".
Proof. vm_compute. repeat split; reflexivity. Qed.

(* the generator invariant is satisfiable for that scope, counter 3 and the buffer variable output *)
Example C04_ginv_nonvacuous : ginv ex_sc2 3 (b "output").
Proof.
  assert (Hl : forall key, jsc_lookup ex_sc2 key = if bstr_eqb key (b "x") then b "x_3" else []).
  { intro key. unfold ex_sc2. cbn [jsc_lookup]. unfold assoc_s. destruct (bstr_eqb key (b "x")); reflexivity. }
  constructor.
  - discriminate.
  - intros key _. rewrite Hl. destruct (bstr_eqb key (b "x")); [|apply bounded_nil]. exact (bounded_name 3 (b "x") 3 ltac:(reflexivity)).
  - apply bounded_no_us. vm_compute. intuition discriminate.
  - intros key _. rewrite Hl. destruct (bstr_eqb key (b "x")); reflexivity.
  - reflexivity.
  - intro x. replace (jsc_loop ex_sc2 x) with (@nil N, @nil N).
    + repeat split; try apply bounded_nil; reflexivity.
    + unfold ex_sc2. cbn [jsc_loop]. unfold assoc_s. cbn. rewrite andb_false_r. reflexivity.
Qed.

(* env_rel is satisfiable for that environment: x is in the generated variable, a in opt_data *)
Example C04_env_rel_nonvacuous : env_rel ex_sc None ex_env ex_je.
Proof.
  constructor.
  - intros key _ Hk. unfold ex_sc, ex_je, env_val, ex_env. cbn [jsc_lookup je_vars je_data].
    destruct (bstr_eqb key (b "x")) eqn:Ex.
    + apply bstr_eqb_true in Ex. subst. reflexivity.
    + replace (assoc_s key [(b "x", b "x3")]) with (@None bstr) by (cbn [assoc_s]; rewrite Ex; reflexivity).
      cbn [js_member assoc_s]. destruct (bstr_eqb key (b "a")) eqn:Ea; reflexivity.
  - discriminate.
  - intro key. unfold env_val, ex_env. destruct (bstr_eqb key (b "a")); [reflexivity|]. destruct (bstr_eqb key (b "x")); reflexivity.
  - discriminate.
  - intros x i H. unfold ex_env in H. rewrite !(bstr_eqb_sym (x ++ jk_index)) in H. rewrite !ident_neq_index in H by reflexivity. discriminate.
Qed.

(* {foreach $v in $a.l}{if not isFirst($v)},{/if}{index($v)}:{$v}{if isLast($v)}.{/if}{ifempty}none{/foreach}
   with a.l = [10, 20] in opt_data, and with an empty list *)
Definition ex_for : cstmt :=
  SFor (b "v") (CVar (b "a") [CAKey false (b "l")])
       (BCons (SIf (CNot (CLoop LIsFirst (b "v"))) (BCons (SRaw (b ",")) BNil) ENone)
       (BCons (SPrint (CLoop LIndex (b "v")) []) (BCons (SRaw (b ":")) (BCons (SPrint (CVar (b "v") []) [])
       (BCons (SIf (CLoop LIsLast (b "v")) (BCons (SRaw (b ".")) BNil) ENone) BNil)))))
       true (BCons (SRaw (b "none")) BNil).
Definition ex_env_l (l : list value) (k : bstr) : option value := if bstr_eqb k (b "a") then Some (VMap 7 [(b "l", VList 8 l)]) else None.
Example C04_loops_nonvacuous :
  swf [] ex_for = true
  /\ (match sout None 1 go_print_text (fun _ => None) (fun _ _ => None) (ex_env_l [VInt 10; VInt 20]) ex_for with Some (t, _) => Some t | None => None end) = Some (b "0:10,1:20.")
  /\ (match sout None 1 go_print_text (fun _ => None) (fun _ _ => None) (ex_env_l []) ex_for with Some (t, _) => Some t | None => None end) = Some (b "none")
  /\ (match js_exec (fun _ _ _ => OutOfModel) {| je_vars := [(b "output", JStr [])]; je_data := JObj [(b "a", JObj [(b "l", JArr [JNum 10; JNum 20])])] |}
                     (fst (sgen 1 (b "output") [[]] 3 ex_for)) with
      | Ok je' => Some (je_vars je') | _ => None end)
     = Some [(b "output", JStr (b "0:10,1:20.")); (b "vList_4", JArr [JNum 10; JNum 20]); (b "vLimit_4", JNum 2); (b "vIndex_4", JNum 2); (b "v_4", JNum 20)]
  /\ (match js_exec (fun _ _ _ => OutOfModel) {| je_vars := [(b "output", JStr [])]; je_data := JObj [(b "a", JObj [(b "l", JArr [])])] |}
                     (fst (sgen 1 (b "output") [[]] 3 ex_for)) with
      | Ok je' => assoc_s (b "output") (je_vars je') | _ => None end) = Some (JStr (b "none"))
  /\ render_chunks is_print_tbl (sprint 1 (fst (sgen 1 (b "output") [[]] 3 ex_for))) = b
"  var vList_4 = opt_data.a.l;
  var vLimit_4 = vList_4.length;
  if (vLimit_4 > 0) {
    for (var vIndex_4 = 0; vIndex_4 < vLimit_4; vIndex_4++) {
      var v_4 = vList_4[vIndex_4];
      if (!((vIndex_4 == 0))) {
        output += ',';
      }
      output += soy.$$escapeHtml(vIndex_4);
      output += ':';
      output += soy.$$escapeHtml(v_4);
      if ((vIndex_4 == vLimit_4 - 1)) {
        output += '.';
      }
    }
  } else {
    output += 'none';
  }
".
Proof. vm_compute. repeat split; reflexivity. Qed.

(* {for $r in range(1, 8, 3)}{index($r)}={$r}{if not isLast($r)};{/if}{/for} *)
Definition ex_range : cstmt :=
  SForRange (b "r") (CInt 1) [CInt 8; CInt 3]
    (BCons (SPrint (CLoop LIndex (b "r")) []) (BCons (SRaw (b "=")) (BCons (SPrint (CVar (b "r") []) [])
    (BCons (SIf (CNot (CLoop LIsLast (b "r"))) (BCons (SRaw (b ";")) BNil) ENone) BNil)))) false BNil.
Example C04_for_range_nonvacuous :
  swf [] ex_range = true
  /\ (match sout None 2 go_print_text (fun _ => None) (fun _ _ => None) (fun _ => None) ex_range with Some (t, _) => Some t | None => None end) = Some (b "0=1;1=4;2=7")
  /\ (match js_exec (fun _ _ _ => OutOfModel) {| je_vars := [(b "output", JStr [])]; je_data := JObj [] |} (fst (sgen 2 (b "output") [[]] 3 ex_range)) with
      | Ok je' => assoc_s (b "output") (je_vars je') | _ => None end) = Some (JStr (b "0=1;1=4;2=7"))
  /\ render_chunks is_print_tbl (sprint 1 (fst (sgen 2 (b "output") [[]] 3 ex_range))) = b
"  var rInit_4 = 1;
  var rStep_4 = 3;
  var rLimit_4 = Math.max(0, Math.ceil((8 - rInit_4) / rStep_4));
  for (var rIndex_4 = 0; rIndex_4 < rLimit_4; rIndex_4++) {
    var r_4 = rInit_4 + rIndex_4 * rStep_4;
    output += rIndex_4;
    output += '\u003D';
    output += r_4;
    if (!((rIndex_4 == rLimit_4 - 1))) {
      output += ';';
    }
  }
".
Proof. vm_compute. repeat split; reflexivity. Qed.

(* {css $x, bar}{css foo} with x = 4 in the generated variable x_3 *)
Example C04_css_nonvacuous :
  (match bout None 1 go_print_text (fun _ => None) (fun _ _ => None) ex_env (BCons (SCss (Some (CVar (b "x") [])) (b "bar")) (BCons (SCss None (b "foo")) BNil)) with Some t => Some t | None => None end)
    = Some (b "4-barfoo")
  /\ (match jb_exec (fun _ _ _ => OutOfModel) {| je_vars := [(b "output", JStr []); (b "x_3", JNum 4)]; je_data := JObj [] |}
                      (fst (bgen 1 (b "output") ex_sc2 3 (BCons (SCss (Some (CVar (b "x") [])) (b "bar")) (BCons (SCss None (b "foo")) BNil)))) with
      | Ok je' => assoc_s (b "output") (je_vars je') | _ => None end) = Some (JStr (b "4-barfoo"))
  /\ render_chunks is_print_tbl (bprint 1 (fst (bgen 1 (b "output") ex_sc2 3 (BCons (SCss (Some (CVar (b "x") [])) (b "bar")) (BCons (SCss None (b "foo")) BNil))))) = b
"  output += x_3 + '-';
  output += 'bar';
  output += 'foo';
".
Proof. vm_compute. repeat split; reflexivity. Qed.

(* ================================================================== *)
(* the call stage and the template wrapper *)

(* {call name}, {call name data="all"}, {call name data="$e"} (e a map whose keys are identifiers) with parameters
   {param k: e /} and {param k}..{/param} (k an identifier): the Go renderer builds the callee's scope -- a fresh frame that
   takes the parameters (a content parameter is rendered by renderBlock into a buffer of its own and passed as a string),
   over nothing, over the frames alldata() returns, or over the map -- and enters the callee; the JavaScript is
     [var param_n = ''; the block's statements appending to param_n]   per content parameter, in order, BEFORE the call,
     buf += name(D, opt_sb, opt_ijData);      D = {} | opt_data | e
     buf += name(soy.$$augmentMap(D, {k: e, k2: param_n, ..}), opt_sb, opt_ijData);      with parameters
   (the value parameters are therefore evaluated after every content block has run, while the Go renderer evaluates the
   parameters in order: the proof shows that the blocks leave every variable of the caller alone -- the frame property --
   and that param_n still holds its text when the object literal is evaluated; MiniJS: an object without prototype
   chain, so augmentMap is an update of the base object's association list).  The same simulation step as the other
   stages, relative to the context cc. *)
Theorem C04_gen_correct_partial_call : forall cf o cc lv st je jst name d ps fuel text env' old,
  c_oblig cf = [] -> callctx_ok cf o cc -> (cc_fuel cc + sdepth (SCall name d ps) < fuel)%nat -> sim cf cc st je jst old ->
  swf lv (SCall name d ps) = true -> lvok lv (j_scope jst) ->
  sout (c_ij cf) (mode st) go_print_text (cc_denv cc) (cc_callee cc) (sc_lookup (ctx st)) (SCall name d ps) = Some (text, env') ->
  sim_step cf o cc lv st je jst (SCall name d ps) fuel text env' old.
Proof. intros cf o cc lv st je jst name d ps fuel text env' old. apply gen_correct_partial_stmt. Qed.
Print Assumptions C04_gen_correct_partial_call.

(* {msg desc=".."}text{$x}{call ..}..{/msg} without plural, rendered WITHOUT a translation bundle (soyhtml walkMsgBody; the
   generator with o_msgs o = None: part of callctx_ok): raw text and placeholders (print, call: msg_ok) are walked in the
   scope of the message on both sides; the JavaScript is the statements of the children one after the other.  Messages with
   {plural}: C04_gen_correct_partial_plural_stmt at the end; messages rendered from a bundle (soyhtml evalMsg, soyjs
   evalMsgParts) are NOT proved. *)
Theorem C04_gen_correct_partial_msg : forall cf o cc lv st je jst body fuel text env' old,
  c_oblig cf = [] -> callctx_ok cf o cc -> (cc_fuel cc + sdepth (SMsg body) < fuel)%nat -> sim cf cc st je jst old ->
  swf lv (SMsg body) = true -> lvok lv (j_scope jst) ->
  sout (c_ij cf) (mode st) go_print_text (cc_denv cc) (cc_callee cc) (sc_lookup (ctx st)) (SMsg body) = Some (text, env') ->
  sim_step cf o cc lv st je jst (SMsg body) fuel text env' old.
Proof. intros cf o cc lv st je jst body fuel text env' old. apply gen_correct_partial_stmt. Qed.
Print Assumptions C04_gen_correct_partial_msg.

(* a context for statements without calls exists for every template data, so the stages above lose nothing *)
Theorem C04_cc_nocalls_ok : forall cf o denv, cn_ok o -> o_msgs o = None -> envok denv -> callctx_ok cf o (cc_nocalls denv).
Proof. exact cc_nocalls_ok. Qed.

(* the context discharged for a whole program p (Model/MiniJSProg.v: templates whose bodies are blocks of the statement
   subset; c04_tout k = what rendering a template writes, by recursion on the call depth k; recursion between templates
   allowed), by induction on k on both sides:
   (Go) the registry holds the program's templates; entering the template a call names, with a scope that holds the
        callee's data, writes c04_tout's text for every fuel from k * c04_D p on and restores scope and mode;
   (JS) the function of that template in the generated file (c04_jprog: per template the MiniJS block of its body,
        generated from the counter cnt the generator has reached there) returns that text (c04_jcall: opt_data
        defaulting, var output = '', the body, return output). *)
Theorem C04_go_call_correct : forall cf p,
  c_oblig cf = [] -> (forall x, c_ij cf = Some x -> core_value x = true) -> r_templates (c_reg cf) = c04_templates p ->
  forall k, go_callee_ok cf (c04_tout (c_ij cf) go_print_text p k) (k * c04_D p).
Proof. exact go_call_correct. Qed.
Print Assumptions C04_go_call_correct.
Theorem C04_js_call_correct : forall cf p,
  (forall x, c_ij cf = Some x -> core_value x = true) ->
  forall cnt k, js_callee_ok (c_ij cf) (c04_tout (c_ij cf) go_print_text p k) (c04_jcall (c04_jprog p cnt) k).
Proof. exact js_call_correct. Qed.
Print Assumptions C04_js_call_correct.

(* the same for ANY table that holds, under the name of each template, its function generated from some counter -- in
   particular the table of one file, c04_jprog_chain p n: the counter of scope.go is never reset inside a file, so the
   next template starts where the body of this one stopped (c04_chain) *)
Theorem C04_js_call_correct_tbl : forall cf p,
  (forall x, c_ij cf = Some x -> core_value x = true) ->
  forall jp, c04_table_ok p jp ->
  forall k, js_callee_ok (c_ij cf) (c04_tout (c_ij cf) go_print_text p k) (c04_jcall jp k).
Proof. exact js_call_correct_tbl. Qed.
Print Assumptions C04_js_call_correct_tbl.
Theorem C04_jprog_chain_ok : forall p n, c04_table_ok p (c04_jprog_chain p n).
Proof. exact c04_jprog_chain_ok. Qed.
(* and that table IS what the generator writes for the templates of a file: walking the soydoc and template nodes of the
   program in order (state.walk of Model/JsGen.v from counter n, at the file's level) emits, template after template,
   the function c04_jprog_chain holds for it (c04_file_chunks), each from the counter the chain gives it.  (The lines
   before them -- header comment, namespace declarations -- and the imports gen_file prepends are not part of it.) *)
Theorem C04_gen_templates : forall o, cn_ok o -> o_msgs o = None -> forall nsae F p n st bf,
  (forall t, In t p -> ct_ns_ae t = nsae /\ (S (S (bdepth (ct_body t))) < F)%nat /\ bwf [] (ct_body t) = true) ->
  shape st 0 bf nsae [[]] n ->
  exists bf' n', gres o (jwalk_list (jwalk o F) (flat_map c04_doc_nodes p)) st (c04_file_chunks o p n) 0 bf' nsae [[]] n'.
Proof. exact gen_templates. Qed.
Print Assumptions C04_gen_templates.

(* a template of a program built from the proved stages, the three sides together: whenever the subset semantics gives
   a text for the template and data at call depth k,
   (Go)  evalCall entering it (call_enter) writes exactly that text;
   (JS)  its function in the generated file returns exactly that text, for every data object that holds the data;
   (Gen) that function -- header, [opt_data = opt_data || {};] var output = ''; the printed block; return output; } --
         is what visitTemplate emits from the counter cnt name. *)
Theorem C04_gen_correct_partial_template : forall cf o p cnt,
  c_oblig cf = [] -> (forall x, c_ij cf = Some x -> core_value x = true) -> r_templates (c_reg cf) = c04_templates p -> cn_ok o -> o_msgs o = None ->
  forall k name cenv text, c04_tout (c_ij cf) go_print_text p k name cenv = Some text ->
  exists t, c04_find p name = Some t
  /\ (envok cenv -> forall f st cd, (k * c04_D p <= f)%nat -> wok st -> cd <> [] -> (forall q, sc_lookup cd q = cenv q) ->
        exists st' ws rv, call_enter (walk cf f) (c04_template t) cd st = (Ok rv, st') /\ wrote st st' ws /\ concat_b ws = text
                          /\ mode st' = mode st /\ ctx st' = ctx st)
  /\ (forall jd ijv, datarel cenv jd -> (forall v, c_ij cf = Some v -> ijv = to_js v) ->
        c04_jcall (c04_jprog p cnt) k name jd ijv = Ok text)
  /\ (forall F st bf, (S (bdepth (ct_body t)) < F)%nat -> bwf [] (ct_body t) = true ->
        shape st 0 bf (ct_ns_ae t) [[]] (cnt name) -> c04_allopt (j_cur st) = ct_allopt t ->
        gres o (jwalk o F (t_node (c04_template t))) st
             (c04_tprint (template_header_line o name) (ct_allopt t) (c04_jbody t (cnt name))) 0 t_output (ct_ns_ae t) [[]]
             (snd (bgen (ct_mode t) t_output c04_body_scope (cnt name) (ct_body t)))).
Proof. exact gen_correct_partial_template. Qed.
Print Assumptions C04_gen_correct_partial_template.

(* the entry point: Renderer.Execute (Model/Interp.v's render) of a template of the program, data a map of core values,
   no write budget: Ok, and the Write calls concatenate to the text of the subset semantics (also when Execute's entry
   mode "on" differs from the mode "unspecified" a call and the generator use: both escape) *)
Theorem C04_go_render_correct : forall cf p,
  c_oblig cf = [] -> (forall x, c_ij cf = Some x -> core_value x = true) -> r_templates (c_reg cf) = c04_templates p ->
  forall k name t data_id data first_id text fuel,
  c04_find p name = Some t ->
  forallb (fun kv => core_value (snd kv)) data = true ->
  c04_tout (c_ij cf) go_print_text p (S k) name (fun q => assoc_s q data) = Some text ->
  (S k * c04_D p <= fuel)%nat ->
  let r := render cf fuel name data_id data None None first_id in
  rr_outcome r = Ok tt /\ concat_b (rr_writes r) = text.
Proof. exact go_render_correct. Qed.
Print Assumptions C04_go_render_correct.

(* non-vacuity: two templates; .main prints $x, calls .item with data="all" and a parameter, then calls itself on the map $next
   while there is one (recursion through data="$e"):
     {template .main}{$x}[{call .item data="all"}{param y: $x + 1 /}{param z}<{$x}{/param}{/call}]{if $next}{call .main data="$next" /}{/if}{/template}
     {template .item}{msg desc="d"}{$x}-{$y}{/msg}{$z|noAutoescape}{/template} *)
Definition ex_main : ctmpl :=
  {| ct_name := b "ns.main"; ct_ns_ae := 1; ct_ae := 0; ct_allopt := false;
     ct_body := BCons (SPrint (CVar (b "x") []) [])
               (BCons (SRaw (b "["))
               (BCons (SCall (b "ns.item") DAll (PVal (b "y") (CBin OAdd (CVar (b "x") []) (CInt 1)) (PCont (b "z") (BCons (SRaw (b "<")) (BCons (SPrint (CVar (b "x") []) []) BNil)) PNil)))
               (BCons (SRaw (b "]"))
               (BCons (SIf (CVar (b "next") []) (BCons (SCall (b "ns.main") (DExpr (CVar (b "next") [])) PNil) BNil) ENone) BNil)))) |}.
Definition ex_item : ctmpl :=
  {| ct_name := b "ns.item"; ct_ns_ae := 1; ct_ae := 0; ct_allopt := false;
     ct_body := BCons (SMsg (BCons (SPrint (CVar (b "x") []) []) (BCons (SRaw (b "-")) (BCons (SPrint (CVar (b "y") []) []) BNil))))
               (BCons (SPrint (CVar (b "z") []) [PNoAutoescape]) BNil) |}.
Definition ex_prog : list ctmpl := [ex_main; ex_item].
Definition ex_data : list (bstr * value) := [(b "next", VMap 2 [(b "x", VInt 7)]); (b "x", VInt 4)].
Definition ex_cf : cfg :=
  {| c_reg := {| r_templates := c04_templates ex_prog; r_sources := []; r_files := [] |}; c_ij := None; c_oblig := []; c_msgs := None |}.
Example C04_call_nonvacuous :
  c04_tout None go_print_text ex_prog 3 (b "ns.main") (fun q => assoc_s q ex_data) = Some (b "4[4-5<4]7[7-8<7]")
  /\ c04_jcall (c04_jprog ex_prog (fun _ => 0)) 3 (b "ns.main") (to_js (VMap 1 ex_data)) JUndef = Ok (b "4[4-5<4]7[7-8<7]")
  /\ c04_jcall (c04_jprog_chain ex_prog 0) 3 (b "ns.main") (to_js (VMap 1 ex_data)) JUndef = Ok (b "4[4-5<4]7[7-8<7]")
  /\ map snd (c04_chain ex_prog 0) = [0; 1]
  /\ (let r := render ex_cf 40 (b "ns.main") 1 ex_data None None 10 in (rr_outcome r, concat_b (rr_writes r))) = (Ok tt, b "4[4-5<4]7[7-8<7]")
  /\ render_chunks is_print_tbl (c04_tprint (template_header_line {| o_fmt := ES5; o_msgs := None; o_order := fun l => l |} (b "ns.main")) false (c04_jbody ex_main 0)) = b
"
ns.main = function(opt_data, opt_sb, opt_ijData) {
  var output = '';
  output += soy.$$escapeHtml(opt_data.x);
  output += '[';
  var param_1 = '';
  param_1 += '\u003C';
  param_1 += soy.$$escapeHtml(opt_data.x);
  output += ns.item(soy.$$augmentMap(opt_data, {y: ((opt_data.x) + (1)), z: param_1}), opt_sb, opt_ijData);
  output += ']';
  if (opt_data.next) {
    output += ns.main(opt_data.next, opt_sb, opt_ijData);
  }
  return output;
};
".
Proof. vm_compute. repeat split; reflexivity. Qed.

(* ================================================================== *)
(* one whole file *)

(* soyjs.Write on a file of the subset (Model/JsGen.v gen_file; a namespace declaration, then per template its soydoc
   comment and the template): Ok, and the chunks are EXACTLY
     // This file was automatically generated from <name>.   // Please don't edit this file by hand.   <blank line>
     one line  if (typeof a.b == 'undefined') { [var ]a.b = {}; }  per dotted prefix of the namespace,
     the printed function table c04_jprog_chain p 0 (c04_table_chunks: per template the blank line, the header line,
     [opt_data = opt_data || {};] var output = ''; the printed MiniJS block of its body generated from the counter the
     previous template left, return output; and the closing line),
   and NO import line: the formatter writes none (c04_imp_free: the ES5 formatter's Call and Directive methods return an
   empty import; proved from the regenerated formatter tables by C04_imp_free_es5), and every statement of every
   template leaves the generator's import table as it was (the frame conjunct of gres). *)
Theorem C04_gen_file_chunks : forall o, cn_ok o -> o_msgs o = None -> forall fname ns nsae F p, c04_imp_free o ->
  (forall t, In t p -> ct_ns_ae t = nsae /\ (S (S (bdepth (ct_body t))) < F)%nat /\ bwf [] (ct_body t) = true) ->
  (0 < F)%nat ->
  gen_file o F fname (c04_file_nodes ns nsae p)
  = Ok (c04_file_header fname ++ c04_ns_lines ns ++ c04_table_chunks o (c04_jprog_chain p 0)).
Proof. exact gen_file_chunks. Qed.
Print Assumptions C04_gen_file_chunks.
Theorem C04_imp_free_es5 : forall o, o_fmt o = ES5 -> c04_imp_free o.
Proof. exact c04_imp_free_es5. Qed.

(* FULL STATEMENT:  gen_correct : forall b t data ij, check b = Ok -> in_core b data -> js_run (gen b) t data ij = render_impl b t data ij.
   PROVED (partial): for every registry whose templates are those of one file of the subset, every budget F above the
   nesting of the bodies, the ES5 formatter and no translation bundle:
     (Gen) gen_file answers Ok with header, namespace declarations and the printed function table jp = c04_jprog_chain p 0;
     and for every template of the file, every data map of core values (no floats, integers within 2^53) and every
     call depth k for which the subset semantics c04_tout gives a text (that is the subset condition on the run: every
     printed value is a printable scalar, every call names a template of the file, ...):
     (Go)  Renderer.Execute (Model/Interp.v render, tied to soyhtml by C02) is Ok and its Write calls concatenate to text;
     (JS)  the MiniJS call of that template's function of jp, with any object that holds the same data (in particular
           to_js of the data map when its keys are identifiers) and the same injected data, returns text.
   NOT PROVED / outside: (a) the ES6 formatter (cn_ok and c04_imp_free fail: a call is renamed by ES6Identifier and
   imported); (b) the step from the emitted text to a function table in a real engine -- parsing the printed functions,
   the namespace objects, soyutils.js --: node correspondence of the harness (MiniJS-vs-V8); (c) messages rendered from a
   bundle (soyjs evalMsgParts) and nested plurals (a message whose child is ONE plural with numeric cases is a statement of the
   subset: SMsgPl, C04_plural_file_nonvacuous): C11_three_sided_translation_partial covers bundle messages of
   plain items relative to C04's step, not composed here; (d) a registry of several files: see
   C04_gen_registry_correct_partial below.  (Execute enters a template of a namespace without an autoescape attribute in
   mode "on" while a call -- and the generator -- use "unspecified": the subset semantics is the same for both, bout_mode01.) *)
Theorem C04_gen_file_correct_partial : forall cf o fname ns nsae p F,
  c_oblig cf = [] -> (forall x, c_ij cf = Some x -> core_value x = true) -> r_templates (c_reg cf) = c04_templates p ->
  cn_ok o -> c04_imp_free o -> o_msgs o = None ->
  (forall t, In t p -> ct_ns_ae t = nsae /\ (S (S (bdepth (ct_body t))) < F)%nat /\ bwf [] (ct_body t) = true) ->
  (0 < F)%nat ->
  let jp := c04_jprog_chain p 0 in
  gen_file o F fname (c04_file_nodes ns nsae p) = Ok (c04_file_header fname ++ c04_ns_lines ns ++ c04_table_chunks o jp)
  /\ forall k name t data_id data first_id text fuel,
       c04_find p name = Some t ->
       forallb (fun kv => core_value (snd kv)) data = true ->
       c04_tout (c_ij cf) go_print_text p (S k) name (fun q => assoc_s q data) = Some text ->
       (S k * c04_D p <= fuel)%nat ->
       (let r := render cf fuel name data_id data None None first_id in
        rr_outcome r = Ok tt /\ concat_b (rr_writes r) = text)
       /\ (forall jd ijv, datarel (fun q => assoc_s q data) jd -> (forall v, c_ij cf = Some v -> ijv = to_js v) ->
             c04_jcall jp (S k) name jd ijv = Ok text)
       /\ (forallb (fun kv => is_ident (fst kv)) data = true -> forall ijv, (forall v, c_ij cf = Some v -> ijv = to_js v) ->
             c04_jcall jp (S k) name (to_js (VMap data_id data)) ijv = Ok text).
Proof. exact gen_file_correct_partial. Qed.
Print Assumptions C04_gen_file_correct_partial.

(* the same for a registry of SEVERAL files (fs: per file its name, namespace, autoescape mode and templates): every
   file's generated text is header + namespace declarations + its own printed function table (each file from counter 0:
   soyjs.Write makes a new scope per file), and in the UNION of the tables -- what an engine holds after loading every
   generated file -- the function of every template returns what Renderer.Execute writes, calls across files included
   (same hypotheses, same limits (a) (b) (c)). *)
Theorem C04_gen_registry_correct_partial : forall cf o fs F,
  c_oblig cf = [] -> (forall x, c_ij cf = Some x -> core_value x = true) -> r_templates (c_reg cf) = c04_templates (c04_all_tmpls fs) ->
  cn_ok o -> c04_imp_free o -> o_msgs o = None ->
  (forall f, In f fs -> forall t, In t (cfl_tmpls f) -> ct_ns_ae t = cfl_ae f /\ (S (S (bdepth (ct_body t))) < F)%nat /\ bwf [] (ct_body t) = true) ->
  (0 < F)%nat ->
  let p := c04_all_tmpls fs in
  let jp := c04_all_jprog fs in
  (forall f, In f fs ->
     gen_file o F (cfl_name f) (c04_file_nodes (cfl_ns f) (cfl_ae f) (cfl_tmpls f))
     = Ok (c04_file_header (cfl_name f) ++ c04_ns_lines (cfl_ns f) ++ c04_table_chunks o (c04_jprog_chain (cfl_tmpls f) 0)))
  /\ forall k name t data_id data first_id text fuel,
       c04_find p name = Some t ->
       forallb (fun kv => core_value (snd kv)) data = true ->
       c04_tout (c_ij cf) go_print_text p (S k) name (fun q => assoc_s q data) = Some text ->
       (S k * c04_D p <= fuel)%nat ->
       (let r := render cf fuel name data_id data None None first_id in
        rr_outcome r = Ok tt /\ concat_b (rr_writes r) = text)
       /\ (forall jd ijv, datarel (fun q => assoc_s q data) jd -> (forall v, c_ij cf = Some v -> ijv = to_js v) ->
             c04_jcall jp (S k) name jd ijv = Ok text)
       /\ (forallb (fun kv => is_ident (fst kv)) data = true -> forall ijv, (forall v, c_ij cf = Some v -> ijv = to_js v) ->
             c04_jcall jp (S k) name (to_js (VMap data_id data)) ijv = Ok text).
Proof. exact gen_registry_correct_partial. Qed.
Print Assumptions C04_gen_registry_correct_partial.

(* non-vacuity: the two templates of C04_call_nonvacuous as the file ex.soy with {namespace ns}: every hypothesis of the
   theorem holds of it, and gen_file's chunks render to the file soyjs.Write produces *)
Definition ex_opts : jopts := {| o_fmt := ES5; o_msgs := None; o_order := fun l => l |}.
Example C04_file_nonvacuous :
  (cn_ok ex_opts /\ c04_imp_free ex_opts /\ o_msgs ex_opts = None)
  /\ (forall t, In t ex_prog -> ct_ns_ae t = 1 /\ (S (S (bdepth (ct_body t))) < 12)%nat /\ bwf [] (ct_body t) = true)
  /\ r_templates (c_reg ex_cf) = c04_templates ex_prog
  /\ (match gen_file ex_opts 12 (b "ex.soy") (c04_file_nodes (b "ns") 1 ex_prog) with
      | Ok cs => Some (render_chunks is_print_tbl cs) | _ => None end) = Some (b
"// This file was automatically generated from ex.soy.
// Please don't edit this file by hand.

if (typeof ns == 'undefined') { var ns = {}; }

ns.main = function(opt_data, opt_sb, opt_ijData) {
  var output = '';
  output += soy.$$escapeHtml(opt_data.x);
  output += '[';
  var param_1 = '';
  param_1 += '\u003C';
  param_1 += soy.$$escapeHtml(opt_data.x);
  output += ns.item(soy.$$augmentMap(opt_data, {y: ((opt_data.x) + (1)), z: param_1}), opt_sb, opt_ijData);
  output += ']';
  if (opt_data.next) {
    output += ns.main(opt_data.next, opt_sb, opt_ijData);
  }
  return output;
};

ns.item = function(opt_data, opt_sb, opt_ijData) {
  var output = '';
  output += soy.$$escapeHtml(opt_data.x);
  output += '-';
  output += soy.$$escapeHtml(opt_data.y);
  output += opt_data.z;
  return output;
};
").
Proof.
  split; [split; [intro name; apply app_nil_r|split; [apply c04_imp_free_es5; reflexivity|reflexivity]]|].
  split; [intros t [<-|[<-|[]]]; (split; [reflexivity|split; [apply Nat.ltb_lt; reflexivity|reflexivity]])|].
  split; [reflexivity|]. vm_compute. reflexivity.
Qed.

(* ================================================================== *)
(* a message whose child is a {plural}, rendered without a bundle *)

(* {msg desc=".."}{plural v}{case z1}b1..{case zk}bk{default}d{/plural}{/msg}, bodies of raw text and print / call placeholders
   (msg_ok), v an expression of the subset whose value is an integer i (any other value is an error of the Go renderer and
   outside the statement): the same simulation step as the other stages, for the node c04_plural_node.
   (Go)  soyhtml walkPlural renders the first case whose number equals i, else the default (c04_plpick): the walker writes
         exactly the text of that body;
   (JS)  the MiniJS statement  switch (v) { case z1: jb1 break; .. default: jd break; }  (JSSwitch over JENum cases, the blocks
         generated one after the other from the generator's counter: c04_plgen) appends exactly that text;
   (Gen) walking the node in Model/JsGen.v (visitMsgNode / walkPlural without a bundle) emits exactly c04_plprint: that
         switch WITHOUT the "break;" after the default clause -- C04_plural_text_vs_sprint: the printed form of the MiniJS
         statement is the emitted text with that one line added (last clause: no effect);
   and the resulting states are related by sim again, with the generator's scope unchanged and its counter behind the last body.
   NOT part of it: nested plurals, plural with a bundle (soy.$$pluralIndex cases).  The plural inside a program of
   Model/MiniJSProg.v: see C04_gen_correct_partial_plural_stmt below. *)
Theorem C04_gen_correct_partial_plural : forall cf o cc lv, c_oblig cf = [] -> callctx_ok cf o cc ->
  forall pname v cs d D st je jst fuel i text env' old,
  sim cf cc st je jst old ->
  (cdepth v < D)%nat -> cwf lv v = true ->
  (forall zb, In zb cs -> msg_ok (snd zb) = true /\ bwf lv (snd zb) = true /\ (bdepth (snd zb) <= D)%nat) ->
  msg_ok d = true -> bwf lv d = true -> (bdepth d <= D)%nat ->
  (cc_fuel cc + S (S (S D)) < fuel)%nat -> lvok lv (j_scope jst) ->
  ceval (c_ij cf) (sc_lookup (ctx st)) v = Some (VInt i) ->
  sout (c_ij cf) (mode st) go_print_text (cc_denv cc) (cc_callee cc) (sc_lookup (ctx st)) (SMsg (c04_plpick i cs d)) = Some (text, env') ->
  forall jcs n1 jd n2,
  c04_plgen (mode st) (j_buf jst) (j_scope jst) (j_n jst) cs = (jcs, n1) -> bgen (mode st) (j_buf jst) (j_scope jst) n1 d = (jd, n2) ->
  let nd := c04_plural_node pname v cs d in
  let j := JSSwitch (cgen (j_scope jst) v) (c04_plk jcs jd) in
  exists st' ws rv je' jst',
    walk cf fuel nd st = (Ok rv, st') /\ wrote st st' ws /\ concat_b ws = text
    /\ mode st' = mode st /\ tl (ctx st') = tl (ctx st) /\ (forall k, sc_lookup (ctx st') k = env' k)
    /\ js_exec (cc_jfn cc) je j = Ok je' /\ je_data je' = je_data je
    /\ jwalk o fuel nd jst = Ok (tt, jst') /\ j_out jst' = rev (c04_plprint (j_indent jst) (cgen (j_scope jst) v) jcs jd) ++ j_out jst
    /\ j_indent jst' = j_indent jst /\ j_buf jst' = j_buf jst /\ j_scope jst' = j_scope jst /\ j_n jst' = n2
    /\ sim cf cc st' je' jst' (old ++ text) /\ lvok lv (j_scope jst').
Proof. exact gen_correct_partial_plural. Qed.
Print Assumptions C04_gen_correct_partial_plural.
Theorem C04_plural_text_vs_sprint : forall ind jv jcs jd,
  sprint ind (JSSwitch jv (c04_plk jcs jd))
  = sp_ind ind ++ [CText t_switch_open] ++ jprint jv ++ [CText t_for_close; CText t_nl]
    ++ c04_plprint_cases (S ind) jcs
    ++ (sp_ind (S ind) ++ [CText t_default] ++ [CText t_nl]) ++ bprint (S (S ind)) jd
    ++ (sp_ind (S (S ind)) ++ [CText t_break] ++ [CText t_nl])
    ++ (sp_ind ind ++ [CText t_rbrace] ++ [CText t_nl]).
Proof. exact c04_plprint_sprint. Qed.

(* non-vacuity: {msg desc=""}{plural $x}{case 1}one{case 4}four: {$x}{default}{$a.b} items{/plural}{/msg} with x = 4, a.b = 5 *)
Definition ex_pl_cases : list (Z * cblk) :=
  [(1%Z, BCons (SRaw (b "one")) BNil); (4%Z, BCons (SRaw (b "four: ")) (BCons (SPrint (CVar (b "x") []) []) BNil))].
Definition ex_pl_dflt : cblk := BCons (SPrint (CVar (b "a") [CAKey false (b "b")]) []) (BCons (SRaw (b " items")) BNil).
Definition ex_pl_tmpl : template :=
  {| t_name := b "ns.pl"; t_node := NTemplate 0 (b "ns.pl") (NList 0 [c04_plural_node (b "x") (CVar (b "x") []) ex_pl_cases ex_pl_dflt]) 0 false;
     t_ns_name := []; t_ns_autoescape := 1; t_params := []; t_file := [] |}.
Example C04_plural_nonvacuous :
  ceval None ex_env (CVar (b "x") []) = Some (VInt 4)
  /\ (match sout None 1 go_print_text (fun _ => None) (fun _ _ => None) ex_env (SMsg (c04_plpick 4 ex_pl_cases ex_pl_dflt)) with Some (t, _) => Some t | None => None end) = Some (b "four: 4")
  /\ (let r := render {| c_reg := {| r_templates := [ex_pl_tmpl]; r_sources := []; r_files := [] |}; c_ij := None; c_oblig := []; c_msgs := None |}
                      40 (b "ns.pl") 1 [(b "a", VMap 2 [(b "b", VInt 5)]); (b "x", VInt 4)] None None 10 in
       (rr_outcome r, concat_b (rr_writes r))) = (Ok tt, b "four: 4")
  /\ (let '(jcs, n1) := c04_plgen 1 (b "output") [[]] 3 ex_pl_cases in
      let '(jd, _) := bgen 1 (b "output") [[]] n1 ex_pl_dflt in
      (match js_exec (fun _ _ _ => OutOfModel) {| je_vars := [(b "output", JStr [])]; je_data := JObj [(b "a", JObj [(b "b", JNum 5)]); (b "x", JNum 4)] |}
                     (JSSwitch (cgen [[]] (CVar (b "x") [])) (c04_plk jcs jd)) with Ok je' => Some (je_vars je') | _ => None end,
       render_chunks is_print_tbl (c04_plprint 1 (cgen [[]] (CVar (b "x") [])) jcs jd)))
     = (Some [(b "output", JStr (b "four: 4"))], b
"  switch (opt_data.x) {
    case 1:
      output += 'one';
      break;
    case 4:
      output += 'four: ';
      output += soy.$$escapeHtml(opt_data.x);
      break;
    default:
      output += soy.$$escapeHtml(opt_data.a.b);
      output += ' items';
  }
").
Proof. vm_compute. repeat split; reflexivity. Qed.

(* the plural as a STATEMENT of the subset (cstmt SMsgPl pname v q, q the chain of numbered bodies ending in the default):
   the same step, as a case of the statement simulation C04_gen_correct_partial_stmt -- so a plural message may stand
   anywhere a statement may (template bodies, blocks of if / switch / loops, parameter blocks), and templates containing
   plural messages are programs of C04_gen_file_correct_partial / C04_gen_registry_correct_partial.  Its Soy meaning
   (sout): the value of v must be an integer, the first body with that number, else the default, rendered as a message
   (bodies of raw text, print, call: qwf); its MiniJS statement (sgen) is JSPlural (cgen v) cases, executed exactly as
   JSSwitch and printed (sprint / kprint_nb) without the line "break;" after the default clause -- the text soyjs writes. *)
Theorem C04_gen_correct_partial_plural_stmt : forall cf o cc lv st je jst pname v q fuel text env' old,
  c_oblig cf = [] -> callctx_ok cf o cc -> (cc_fuel cc + sdepth (SMsgPl pname v q) < fuel)%nat -> sim cf cc st je jst old ->
  swf lv (SMsgPl pname v q) = true -> lvok lv (j_scope jst) ->
  sout (c_ij cf) (mode st) go_print_text (cc_denv cc) (cc_callee cc) (sc_lookup (ctx st)) (SMsgPl pname v q) = Some (text, env') ->
  sim_step cf o cc lv st je jst (SMsgPl pname v q) fuel text env' old.
Proof. intros cf o cc lv st je jst pname v q fuel text env' old. apply gen_correct_partial_stmt. Qed.
Print Assumptions C04_gen_correct_partial_plural_stmt.

(* the formulation over lists of cases (C04_gen_correct_partial_plural) talks about the same node, the same blocks, the
   same emitted text and the same selected body as the statement SMsgPl pname v (c04_qof cs d) *)
Theorem C04_plural_as_stmt : forall pname v cs d,
  snode (SMsgPl pname v (c04_qof cs d)) = c04_plural_node pname v cs d
  /\ (forall mode buf sc n jcs n1 jd n2, c04_plgen mode buf sc n cs = (jcs, n1) -> bgen mode buf sc n1 d = (jd, n2) ->
        sgen mode buf sc n (SMsgPl pname v (c04_qof cs d)) = (JSPlural (cgen sc v) (c04_plk jcs jd), (sc, n2))
        /\ (forall ind, sprint ind (JSPlural (cgen sc v) (c04_plk jcs jd)) = c04_plprint ind (cgen sc v) jcs jd)
        /\ (forall jfn je, js_exec jfn je (JSPlural (cgen sc v) (c04_plk jcs jd)) = js_exec jfn je (JSSwitch (cgen sc v) (c04_plk jcs jd))))
  /\ (forall ij mode pt dv cl env i, ceval ij env v = Some (VInt i) ->
        sout ij mode pt dv cl env (SMsgPl pname v (c04_qof cs d)) = sout ij mode pt dv cl env (SMsg (c04_plpick i cs d)))
  /\ (forall lv, swf lv (SMsgPl pname v (c04_qof cs d))
                 = cwf lv v && (forallb (fun zb => msg_ok (snd zb) && bwf lv (snd zb)) cs && (msg_ok d && bwf lv d))).
Proof.
  intros pname v cs d. split; [apply c04_qof_node|]. split.
  - intros mode buf sc n jcs n1 jd n2 Eg Ed. split; [exact (c04_qof_sgen mode buf sc pname v cs d n jcs n1 jd n2 Eg Ed)|].
    split; [intro ind; apply c04_plprint_sprint_plural|intros jfn je; reflexivity].
  - split; [intros ij mode pt dv cl env i Ev; apply c04_qof_sout; exact Ev|intro lv; apply c04_qof_swf].
Qed.
Print Assumptions C04_plural_as_stmt.

(* non-vacuity: the file pl.soy, {namespace ns} {template .pl}You have {msg desc=""}{plural $x}{case 1}one{case 4}four: {$x}{default}{$a.b} items{/plural}{/msg}.{/template}
   satisfies every hypothesis of C04_gen_file_correct_partial; with x = 4, a.b = 5 the three sides give "You have four: 4."
   and gen_file's chunks render to the file below (no "break;" after the default clause) *)
Definition ex_pl_ct : ctmpl :=
  {| ct_name := b "ns.pl"; ct_ns_ae := 1; ct_ae := 0; ct_allopt := false;
     ct_body := BCons (SRaw (b "You have ")) (BCons (SMsgPl (b "x") (CVar (b "x") []) (c04_qof ex_pl_cases ex_pl_dflt)) (BCons (SRaw (b ".")) BNil)) |}.
Definition ex_pl_prog : list ctmpl := [ex_pl_ct].
Definition ex_pl_data : list (bstr * value) := [(b "a", VMap 2 [(b "b", VInt 5)]); (b "x", VInt 4)].
Definition ex_pl_cf : cfg :=
  {| c_reg := {| r_templates := c04_templates ex_pl_prog; r_sources := []; r_files := [] |}; c_ij := None; c_oblig := []; c_msgs := None |}.
Example C04_plural_file_nonvacuous :
  (forall t, In t ex_pl_prog -> ct_ns_ae t = 1 /\ (S (S (bdepth (ct_body t))) < 20)%nat /\ bwf [] (ct_body t) = true)
  /\ r_templates (c_reg ex_pl_cf) = c04_templates ex_pl_prog
  /\ c04_tout None go_print_text ex_pl_prog 3 (b "ns.pl") (fun q => assoc_s q ex_pl_data) = Some (b "You have four: 4.")
  /\ c04_jcall (c04_jprog_chain ex_pl_prog 0) 3 (b "ns.pl") (to_js (VMap 1 ex_pl_data)) JUndef = Ok (b "You have four: 4.")
  /\ (let r := render ex_pl_cf 40 (b "ns.pl") 1 ex_pl_data None None 10 in (rr_outcome r, concat_b (rr_writes r))) = (Ok tt, b "You have four: 4.")
  /\ (match gen_file ex_opts 20 (b "pl.soy") (c04_file_nodes (b "ns") 1 ex_pl_prog) with
      | Ok cs => Some (render_chunks is_print_tbl cs) | _ => None end) = Some (b
"// This file was automatically generated from pl.soy.
// Please don't edit this file by hand.

if (typeof ns == 'undefined') { var ns = {}; }

ns.pl = function(opt_data, opt_sb, opt_ijData) {
  var output = '';
  output += 'You have ';
  switch (opt_data.x) {
    case 1:
      output += 'one';
      break;
    case 4:
      output += 'four: ';
      output += soy.$$escapeHtml(opt_data.x);
      break;
    default:
      output += soy.$$escapeHtml(opt_data.a.b);
      output += ' items';
  }
  output += '.';
  return output;
};
").
Proof.
  split; [intros t [<-|[]]; (split; [reflexivity|split; [apply Nat.ltb_lt; reflexivity|reflexivity]])|].
  split; [reflexivity|]. vm_compute. repeat split; reflexivity.
Qed.

(* non-vacuity of the registry theorem: the two templates in two files (main.soy, item.soy), the call from ns.main to
   ns.item crossing the files; each file's table starts from counter 0 *)
Definition ex_files : list c04_file :=
  [{| cfl_name := b "main.soy"; cfl_ns := b "ns"; cfl_ae := 1; cfl_tmpls := [ex_main] |};
   {| cfl_name := b "item.soy"; cfl_ns := b "ns"; cfl_ae := 1; cfl_tmpls := [ex_item] |}].
Example C04_registry_nonvacuous :
  c04_all_tmpls ex_files = ex_prog
  /\ (forall f, In f ex_files -> forall t, In t (cfl_tmpls f) -> ct_ns_ae t = cfl_ae f /\ (S (S (bdepth (ct_body t))) < 12)%nat /\ bwf [] (ct_body t) = true)
  /\ map fst (c04_all_jprog ex_files) = [b "ns.main"; b "ns.item"]
  /\ c04_jcall (c04_all_jprog ex_files) 3 (b "ns.main") (to_js (VMap 1 ex_data)) JUndef = Ok (b "4[4-5<4]7[7-8<7]")
  /\ (match gen_file ex_opts 12 (b "item.soy") (c04_file_nodes (b "ns") 1 [ex_item]) with
      | Ok cs => Some (render_chunks is_print_tbl cs) | _ => None end) = Some (b
"// This file was automatically generated from item.soy.
// Please don't edit this file by hand.

if (typeof ns == 'undefined') { var ns = {}; }

ns.item = function(opt_data, opt_sb, opt_ijData) {
  var output = '';
  output += soy.$$escapeHtml(opt_data.x);
  output += '-';
  output += soy.$$escapeHtml(opt_data.y);
  output += opt_data.z;
  return output;
};
").
Proof.
  split; [reflexivity|].
  split; [intros f [<-|[<-|[]]] t [<-|[]]; (split; [reflexivity|split; [apply Nat.ltb_lt; reflexivity|reflexivity]])|].
  vm_compute. repeat split; reflexivity.
Qed.
