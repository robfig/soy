(* C06 -- Rendering any compiled bundle with any data returns output or an error.

   "For any bundle the compiler accepts and any data and injected-data values,
   rendering a template, evaluating a standalone expression and parsing a
   globals file all return normally with either a result or an error value.  No
   Go panic escapes to the caller and no loop runs unboundedly on finite data,
   whatever the types or shapes of the data, the arities and argument types of
   functions and directives, or the failure inside a called template."

   Model: Model/Interp.v (tree walker, Renderer.Execute, errRecover inlined),
   Model/InterpSafety.v (funcRange's loop with its own fuel, errRecover /
   errFromNode / callAnnotation, EvalExpr through the handler), Model/Globals.v
   (ParseGlobals), Model/Compile.v (Registry.Add).  The model describes the tree
   AFTER the repairs 7dace66 (EvalExpr nil template), 1d02d41 (range step <= 0),
   3930821 (range index overflow), 4041f47 (duplicate template names), 1453953
   (message parts positioned inside the text); the pinned behaviour is kept as
   [..._refuted] / [..._diverges] witnesses.

   Outcomes: [Ok] / [Err] = returns with a result / an error value; [Crash] = a
   panic reaches the caller; [Diverge] = a loop never exits; [OutOfFuel] = the
   model's recursion budget (nesting + call depth) ran out -- "recursion
   restricted to data-bounded depth"; [OutOfModel] = the VALUE is outside the
   model: a float result that is not a dyadic rational of 53 bits (to_float /
   of_fl / fl_to_string, round with digits <> 0, floor/ceiling/round of a
   non-finite float), randomInt with a positive bound, the directives
   escapeJsString and json.  In Go all of these are total library calls made
   inside evalFunc's / evalPrint's recover wrappers, so they return or raise an
   [Err]; the correspondence checks exactly that on every such case. *)
From Coq Require Import Lia.
(* source tie by translation: the lemmas of these files are obligations of this property *)
From Soy Require Import Proofs.SourceTieData Proofs.SourceTieHtml Proofs.SourceTieScope Proofs.SourceTieRegistry Proofs.SourceTieDirectives Proofs.SourceTieWordBreaks.
From Soy Require Import Model.Bytes Model.Num Model.Values Model.Outcome Model.Ast
  Model.Escape Model.Directives Model.Print Generated.Tables Model.Interp Model.InterpSafety Model.Globals
  Model.Compile Model.ExprPipeline Model.InterpJson Spec.Safety
  Proofs.SafetyPure Proofs.SafetyProofs Proofs.SafetyEntry Proofs.SafetyFuel Proofs.SafetyCompile Proofs.SafetyMono
  Proofs.SafetyDepth Proofs.SafetyBytes Proofs.SafetyUser Proofs.SafetyExt Proofs.SafetyRefine Proofs.SafetyMarker.
From Soy Require Import Model.JsGen Spec.SafetyJs Proofs.SafetyJsGen Proofs.SafetyJsFuel Proofs.SafetyJsMono.
From Soy Require Import Model.NumJson Spec.Json Proofs.MsgIdProofs Proofs.CodecJsonNum Proofs.NumJsonProofs.
Open Scope N_scope.

(* ================================================================== *)
(* Rendering                                                           *)
(* ================================================================== *)

(* Renderer.Execute, for EVERY configuration with a well-formed registry (any injected data or none,
   any obligatory directive names), every template name, data map, writer fault automaton and fuel:
   never a panic out of Execute, never a loop that does not exit. *)
Theorem C06_render_no_escape :
  forall cf fuel name data_id data calls_left bytes_left first_id,
    reg_ok (c_reg cf) = true ->
    no_escape (rr_outcome (render cf fuel name data_id data calls_left bytes_left first_id)).
Proof. exact render_no_escape_lemma. Qed.
Print Assumptions C06_render_no_escape.

(* the part of [reg_ok] the proof uses: positions inside the source recorded under the template's name *)
Theorem C06_render_no_escape_pos :
  forall cf fuel name data_id data calls_left bytes_left first_id,
    reg_pos_ok (c_reg cf) = true ->
    no_escape (rr_outcome (render cf fuel name data_id data calls_left bytes_left first_id)).
Proof. exact render_no_escape_pos. Qed.
Print Assumptions C06_render_no_escape_pos.

(* the walker itself, on ANY node (ill-typed, wrong arities, unknown names, nodes no parser produces),
   in ANY state, under ANY registry: functions and directives of the regenerated tables only *)
Theorem C06_walk_no_escape :
  forall cf fuel n st, no_escape (fst (walk cf fuel n st)).
Proof. exact walk_no_escape. Qed.
Print Assumptions C06_walk_no_escape.

(* [OutOfFuel] is about nesting only.  For a bundle whose call graph is acyclic (ranks decrease along
   every call) the budget  (tallest template) x (rank of the entry + 1)  is enough, and then the
   outcome is a result, an error value, or a value outside the float/randomInt/json model. *)
Theorem C06_render_total_ranked :
  forall cf rank fuel name data_id data calls_left bytes_left first_id,
    reg_ok (c_reg cf) = true -> reg_ranked rank (c_reg cf) = true ->
    (reg_height (c_reg cf) * S (rank name) <= fuel)%nat ->
    match rr_outcome (render cf fuel name data_id data calls_left bytes_left first_id) with
    | Ok _ | Err _ | OutOfModel => True
    | _ => False
    end.
Proof. exact render_total_ranked. Qed.
Print Assumptions C06_render_total_ranked.

(* a call-free tree needs its own tree_height, under any registry and in any state *)
Theorem C06_walk_fuel_callfree :
  forall cf fuel n st, call_free n = true -> (tree_height n <= fuel)%nat -> nf (fst (walk cf fuel n st)).
Proof. intros cf fuel n st Hc Hf. apply fuel_ok_nf. apply walk_fuel_callfree; assumption. Qed.
Print Assumptions C06_walk_fuel_callfree.

(* the budget is only an approximation index: an outcome other than OutOfFuel obtained with some fuel is
   the outcome -- with the same accepted writes and the same reported file and line -- for every larger
   fuel.  So on a recursive bundle OutOfFuel can only mean "the calls nest deeper than the budget", never
   a hidden crash or a hidden endless loop: with C06_render_no_escape, either every budget is too small
   (unbounded recursion, outside the statement) or from some budget on the render gives one fixed
   result-or-error. *)
Theorem C06_render_fuel_monotone :
  forall cf f f' name data_id data calls_left bytes_left first_id,
    (f <= f')%nat ->
    rr_outcome (render cf f name data_id data calls_left bytes_left first_id) <> OutOfFuel ->
    render cf f' name data_id data calls_left bytes_left first_id
    = render cf f name data_id data calls_left bytes_left first_id.
Proof. exact render_fuel_monotone. Qed.
Print Assumptions C06_render_fuel_monotone.

Theorem C06_walk_fuel_monotone :
  forall cf f f' n st r st',
    (f <= f')%nat -> walk cf f n st = (r, st') -> r <> OutOfFuel -> walk cf f' n st = (r, st').
Proof. exact walk_fuel_monotone. Qed.
Print Assumptions C06_walk_fuel_monotone.

(* RECURSIVE bundles: the quantitative bound.  "The call depth a run reaches" is stated with the capped
   walker of Model/InterpSafety.v section 4 ([walk_cap cf d]: the walker that answers [Err e_capped] instead
   of walking a node at call depth above d): [run_depth_le cf d n st] (Spec/Safety.v) says that under some
   budget the d-capped walker finishes with an answer that is neither "budget exhausted" nor "cap hit".
   Then EVERY fuel >= (tallest template) x (d + 1) gives a result, an error value or a value outside the
   float model -- whatever the call graph -- and the whole render result is the same for all such fuels. *)
Theorem C06_render_total_depth :
  forall cf d fuel name data_id data calls_left bytes_left first_id t,
    reg_ok (c_reg cf) = true ->
    find_template (r_templates (c_reg cf)) name = Some t ->
    run_depth_le cf d (t_node t)
      (init_state (sc_enter (new_scope data_id data)) (entry_mode (t_ns_autoescape t)) name calls_left bytes_left first_id) ->
    (reg_height (c_reg cf) * S d <= fuel)%nat ->
    match rr_outcome (render cf fuel name data_id data calls_left bytes_left first_id) with
    | Ok _ | Err _ | OutOfModel => True
    | _ => False
    end
    /\ forall fuel', (reg_height (c_reg cf) * S d <= fuel')%nat ->
         render cf fuel' name data_id data calls_left bytes_left first_id
         = render cf fuel name data_id data calls_left bytes_left first_id.
Proof. exact render_total_depth. Qed.
Print Assumptions C06_render_total_depth.

(* the walker itself, from call depth 0 on any tree no taller than the tallest template *)
Theorem C06_walk_fuel_depth :
  forall cf d n st fuel,
    run_depth_le cf d n st ->
    depth_ st = 0%nat -> (tree_height n <= reg_height (c_reg cf))%nat ->
    (reg_height (c_reg cf) * S d <= fuel)%nat ->
    nf (fst (walk cf fuel n st)) /\
    forall fuel', (reg_height (c_reg cf) * S d <= fuel')%nat -> walk cf fuel' n st = walk cf fuel n st.
Proof. exact walk_fuel_depth. Qed.
Print Assumptions C06_walk_fuel_depth.

(* every run that does not run out of fuel has such a d: a run with fuel f cannot nest more than f calls, so
   started at call depth 0 the walker capped at f is the walker.  ([e_capped] is the instrument's own marker;
   that the plain walker never ends with it is C06_walk_never_capped below, so "the fuel sufficed" is the only
   hypothesis.) *)
Theorem C06_answer_has_depth :
  forall cf f n st, depth_ st = 0%nat -> fst (walk cf f n st) <> OutOfFuel -> run_depth_le cf f n st.
Proof. exact walk_answer_has_depth_nofuel. Qed.
Print Assumptions C06_answer_has_depth.

(* the error texts of the plain walker: an [Err e] of [Interp.walk] carries one of the finitely many texts of
   [walker_texts] (the constants Model/Interp.v fails with and those of the pure helpers it lifts), whatever
   the configuration, node, state and fuel; the marker of the depth instrument is not one of them *)
Theorem C06_walk_err_text :
  forall cf f n st e, fst (walk cf f n st) = Err e -> walker_text e = true.
Proof. exact walk_err_text. Qed.
Print Assumptions C06_walk_err_text.
Theorem C06_walk_never_capped :
  forall cf f n st, fst (walk cf f n st) <> Err e_capped.
Proof. exact walk_never_capped. Qed.
Print Assumptions C06_walk_never_capped.

(* the three facts behind it.  (a) the budget pays for every run that stays within d nested calls:
   started at call depth k <= d with tree_height n + reg_height * (d - k) fuel, the capped walker ends at
   call depth k and never in a crash, a divergence or fuel exhaustion *)
Theorem C06_walk_cap_fuel :
  forall cf d fuel n k st r st',
    (k <= d)%nat -> (tree_height n + reg_height (c_reg cf) * (d - k) <= fuel)%nat ->
    depth_ st = k -> walk_cap cf d fuel n st = (r, st') ->
    depth_ st' = k /\ nf r.
Proof. exact walk_cap_fuel_nf. Qed.
Print Assumptions C06_walk_cap_fuel.

(* (b) the capped walker reports the cap or IS the walker: same outcome, same final state *)
Theorem C06_walk_cap_is_walk :
  forall cf d f n st, fst (walk_cap cf d f n st) = Err e_capped \/ walk_cap cf d f n st = walk cf f n st.
Proof. exact walk_cap_approx. Qed.
Print Assumptions C06_walk_cap_is_walk.

(* (c) an answer of the capped walker does not depend on the budget or the cap that produced it, so
   [run_depth_le] is a property of the run, upward closed in d *)
Theorem C06_walk_cap_monotone :
  forall cf d d' f f' n st,
    (d <= d')%nat -> (f <= f')%nat -> is_answer (fst (walk_cap cf d f n st)) ->
    walk_cap cf d' f' n st = walk_cap cf d f n st.
Proof. exact walk_cap_monotone. Qed.
Print Assumptions C06_walk_cap_monotone.

(* ================================================================== *)
(* errRecover                                                          *)
(* ================================================================== *)

Theorem C06_err_recover_safe :
  forall v,
    match rv_tmpl v with
    | None => True
    | Some name =>
        match assoc_s name (r_sources (rv_reg v)) with
        | Some src => rv_pos v <= N.of_nat (length src)
        | None => True
        end
    end ->
    exists file line, err_recover true v = Ok (file, line).
Proof. exact err_recover_safe_lemma. Qed.
Print Assumptions C06_err_recover_safe.

(* Interp.render inlines exactly that handler: same outcome (up to the text of a crash), file and line *)
Theorem C06_render_uses_err_recover :
  forall cf fuel name data_id data calls_left bytes_left first_id t,
    find_template (r_templates (c_reg cf)) name = Some t ->
    (assoc_s name (r_sources (c_reg cf)) = None <-> assoc_s name (r_files (c_reg cf)) = None) ->
    let st0 := init_state (sc_enter (new_scope data_id data)) (entry_mode (t_ns_autoescape t)) name calls_left bytes_left first_id in
    let run := walk cf fuel (t_node t) st0 in
    let rr := render cf fuel name data_id data calls_left bytes_left first_id in
    (crash_class (rr_outcome rr), rr_file rr, rr_line rr) =
    (let '(o, f, l) := finish_render true {| rv_reg := c_reg cf; rv_tmpl := Some name; rv_pos := cur (snd run) |} (fst run) in
     (crash_class o, f, l)).
Proof. exact render_uses_err_recover. Qed.
Print Assumptions C06_render_uses_err_recover.

(* ================================================================== *)
(* range                                                               *)
(* ================================================================== *)

(* funcRange's loop, run with its own fuel: a positive step always leaves through the loop condition
   (or the overflow guard) and yields exactly i, i+step, ... below the limit; a step <= 0 is an error *)
Theorem C06_range_terminates :
  forall i limit step, (limit < two63)%Z ->
    func_range_repaired i limit step =
      if (step <=? 0)%Z then Err e_range
      else Ok (map (fun k => VInt (i + Z.of_nat k * step)) (seq 0 (range_count i limit step))).
Proof. exact range_result. Qed.
Print Assumptions C06_range_terminates.

(* the list Interp.apply_func computes for range() is that loop's result *)
Theorem C06_range_model_agrees :
  forall i limit step, (limit < two63)%Z -> (0 < step)%Z ->
    func_range_repaired i limit step = Ok (range_list (Z.to_nat ((limit - i) / step + 1)) i limit step).
Proof.
  intros i limit step Hl Hs. rewrite range_terminates_lemma by exact Hl.
  destruct (Z.leb_spec step 0); [lia | reflexivity].
Qed.
Print Assumptions C06_range_model_agrees.

Theorem C06_range_no_escape : forall i limit step, no_escape (func_range_repaired i limit step).
Proof. exact range_no_escape. Qed.
Print Assumptions C06_range_no_escape.

(* ================================================================== *)
(* EvalExpr, ParseGlobals, Registry.Add                                *)
(* ================================================================== *)

Theorem C06_eval_expr_no_escape : forall fuel n, no_escape (eval_expr_impl true fuel n).
Proof. exact eval_expr_no_escape_lemma. Qed.
Print Assumptions C06_eval_expr_no_escape.

(* for every expression parser that itself returns a tree or an error (C05), every input *)
Theorem C06_parse_globals_no_escape :
  forall (parse : bstr -> outcome node), (forall t, no_escape (parse t)) ->
  forall fuel input, no_escape (parse_globals parse fuel input).
Proof. exact parse_globals_no_escape_lemma. Qed.
Print Assumptions C06_parse_globals_no_escape.

(* ---- the same two entry points as functions of BYTE STRINGS: scanner model (lexExpr, Model/Lexer.v),
   expression parser model (parse.Expr, Model/Parser.v + Model/ExprParser.v) and the evaluator with the nil
   template, composed (Model/ExprPipeline.v).  The statements have no hypothesis about a parser. ---- *)

(* parse.Expr on ANY bytes: a tree, an error, or a float literal outside the parser model's float domain *)
Theorem C06_parse_expr_bytes_total :
  forall s : bstr, match parse_expr_bytes s with Ok _ | Err _ | OutOfModel => True | _ => False end.
Proof. exact parse_expr_bytes_total. Qed.
Print Assumptions C06_parse_expr_bytes_total.

(* EvalExpr on what parse.Expr makes of ANY bytes *)
Theorem C06_eval_expr_bytes_no_escape : forall fuel (s : bstr), no_escape (eval_expr_bytes fuel s).
Proof. exact eval_expr_bytes_no_escape. Qed.
Print Assumptions C06_eval_expr_bytes_no_escape.

(* ParseGlobals on ANY input bytes *)
Theorem C06_parse_globals_bytes_no_escape : forall fuel (input : bstr), no_escape (parse_globals_bytes fuel input).
Proof. exact parse_globals_bytes_no_escape. Qed.
Print Assumptions C06_parse_globals_bytes_no_escape.

(* budgets: EvalExpr runs without a registry, so no callee is ever entered and the height of the tree is
   enough fuel for ANY tree; with it the three entry points answer -- a value, an error value, or a value
   outside the float model -- on every tree / every byte string *)
Theorem C06_eval_expr_total :
  forall fuel n, (tree_height n <= fuel)%nat ->
    match eval_expr_impl true fuel n with Ok _ | Err _ | OutOfModel => True | _ => False end.
Proof. exact eval_expr_impl_total. Qed.
Print Assumptions C06_eval_expr_total.

Theorem C06_eval_expr_text_total :
  forall s : bstr, match eval_expr_text s with Ok _ | Err _ | OutOfModel => True | _ => False end.
Proof. exact eval_expr_text_total. Qed.
Print Assumptions C06_eval_expr_text_total.

Theorem C06_parse_globals_bytes_total :
  forall fuel (input : bstr), (globals_fuel input <= fuel)%nat ->
    match parse_globals_bytes fuel input with Ok _ | Err _ | OutOfModel => True | _ => False end.
Proof. exact parse_globals_bytes_total. Qed.
Print Assumptions C06_parse_globals_bytes_total.

(* what Bundle.Compile's loop over Registry.Add builds is well-formed, given that the parser numbers
   the nodes of each template inside the file's text *)
Theorem C06_compiled_reg_ok :
  forall srcs r,
    (forall f, In (SrcOk f) srcs -> file_pos_ok f = true) ->
    add_all_files empty_creg srcs = COk r -> reg_ok (cr_reg r) = true.
Proof. exact compiled_reg_ok. Qed.
Print Assumptions C06_compiled_reg_ok.

Theorem C06_registry_add_never_panics : forall r f, registry_add r f <> inl AEIndexCrash.
Proof. exact registry_add_never_panics. Qed.
Print Assumptions C06_registry_add_never_panics.

(* ================================================================== *)
(* Functions and directives supplied by the user                       *)
(* ================================================================== *)

(* Model/InterpSafety.v section 5: the user's Go code is a parameter that returns a value (possibly nil),
   panics, or does not return.  What the recover wrappers of evalFunc / evalPrint guarantee: *)

(* returning anything or panicking with anything: a value or an error value *)
Theorem C06_recover_func_answers : forall r, r <> UNoReturn -> nf (recover_func r).
Proof. exact recover_func_answers. Qed.
Print Assumptions C06_recover_func_answers.

Theorem C06_recover_directive_answers : forall r, r <> UNoReturn -> nf (recover_directive r).
Proof. exact recover_directive_answers. Qed.
Print Assumptions C06_recover_directive_answers.

(* the walker with ANY user functions (they may shadow builtins) and ANY user directives (a directive
   receives and returns a VALUE): never a panic out, never a loop of the walker's own, provided each
   returns or panics on every input *)
Theorem C06_walk_user_no_escape :
  forall cf (ufuncs : bstr -> option user_func) (udirs : bstr -> option user_directive),
    (forall name uf vs, ufuncs name = Some uf -> uf_apply uf vs <> UNoReturn) ->
    (forall name ud v args, udirs name = Some ud -> ud_apply ud v args <> UNoReturn) ->
    forall fuel n st, no_escape (fst (walk_user cf ufuncs udirs fuel n st)).
Proof. intros cf ufuncs udirs Hf Hd. apply walk_user_no_escape. split; assumption. Qed.
Print Assumptions C06_walk_user_no_escape.

(* Renderer.Execute with them, incl. the code inside errRecover (positions stay inside the source) *)
Theorem C06_render_user_no_escape :
  forall cf (ufuncs : bstr -> option user_func) (udirs : bstr -> option user_directive)
         fuel name data_id data calls_left bytes_left first_id,
    (forall name uf vs, ufuncs name = Some uf -> uf_apply uf vs <> UNoReturn) ->
    (forall name ud v args, udirs name = Some ud -> ud_apply ud v args <> UNoReturn) ->
    reg_ok (c_reg cf) = true ->
    no_escape (rr_outcome (render_hook cf (funcs_with_user ufuncs) (dirs_with_user udirs)
                             fuel name data_id data calls_left bytes_left first_id)).
Proof. intros cf ufuncs udirs fuel name data_id data cl bl first_id Hf Hd. apply render_user_no_escape. split; assumption. Qed.
Print Assumptions C06_render_user_no_escape.

(* the hooked walker satisfies EVERY walker logic of Proofs/InterpLogic.v whose pure-site condition holds
   of the hooked calls (the wrapped function calls; the Write calls of a print; the application of one directive
   inside evalPrint's loop, which applies each directive right after its own arguments): the other invariants of the
   walker (C08, C12, ...) extend to user code the same way *)
Theorem C06_walk_hook_logic :
  forall cf fhooks dir_table (Phi : forall A : Type, M A -> Prop) (pure_ok : forall A : Type, outcome A -> Prop),
    InterpLogic.walker_logic Phi pure_ok -> InterpLogic.pure_sites pure_ok ->
    (forall name h vs, fhooks name = Some h -> pure_ok _ (fh_apply h vs)) ->
    (forall mode ds v, pure_ok _ (print_writes_hook dir_table mode ds v)) ->
    (forall ds v esc, pure_ok _ (apply_dirs_hook dir_table ds v esc)) ->
    forall fuel n, Phi _ (walk_hook cf fhooks dir_table fuel n).
Proof. exact walk_hook_logic. Qed.
Print Assumptions C06_walk_hook_logic.

(* the limit: user code that does not return is not turned into an error by any wrapper *)
Theorem C06_user_noreturn_not_covered : recover_func UNoReturn = Diverge /\ recover_directive UNoReturn = Diverge.
Proof. split; reflexivity. Qed.
Print Assumptions C06_user_noreturn_not_covered.

(* ================================================================== *)
(* The extended model: escapeJsString, json, round with digits         *)
(* ================================================================== *)

(* Model/InterpJson.v: the three library calls Model/Interp.v answers [OutOfModel] for, as hooked entries:
   the walker and Renderer.Execute with them ([walk_xj], [render_xj]) never let a panic out and never spin ... *)
Theorem C06_walk_x_no_escape : forall cf fuel n st, no_escape (fst (walk_xj cf fuel n st)).
Proof. exact walk_x_no_escape. Qed.
Print Assumptions C06_walk_x_no_escape.

Theorem C06_render_x_no_escape :
  forall cf fuel name data_id data calls_left bytes_left first_id,
    reg_ok (c_reg cf) = true ->
    no_escape (rr_outcome (render_xj cf fuel name data_id data calls_left bytes_left first_id)).
Proof. exact render_x_no_escape. Qed.
Print Assumptions C06_render_x_no_escape.

(* ... and the hooked entries are INSIDE the model: json of any value without floats is a string, whatever the
   value's String() does (a list holding undefined prints null); escapeJsString is a string wherever
   String() is; json / round on floats answer in the float model's domain, NaN and the infinities under
   json are directiveJson's panic, i.e. an error value *)
Theorem C06_json_total_float_free :
  forall v args, float_free v = true -> exists s, dir_json (Some v) args = Ok (Some (VStr s)).
Proof. exact json_total_float_free. Qed.
Print Assumptions C06_json_total_float_free.

Theorem C06_escape_js_total :
  forall v args s, value_string v = Ok s -> dir_escape_js (Some v) args = Ok (Some (VStr (JsEscape.js_escape_soy jsstr_pair_html is_print_tbl s))).
Proof. exact dir_escape_js_total. Qed.
Print Assumptions C06_escape_js_total.

(* the extended model is a conservative extension of the shared walker: every successful run of
   Interp.walk (outcome Ok) is reproduced exactly -- value, final state, Write calls -- by walk_xj, and every
   successful render by render_xj.  (Where Interp.walk answers OutOfModel the extended model computes; where
   it answers an error the extended model answers an error too except under |json, which prints values
   whose String() panics.) *)
Theorem C06_walk_x_agrees :
  forall cf f n st v st', walk cf f n st = (Ok v, st') -> walk_xj cf f n st = (Ok v, st').
Proof. exact walk_x_agrees. Qed.
Print Assumptions C06_walk_x_agrees.

Theorem C06_render_x_agrees :
  forall cf fuel name data_id data calls_left bytes_left first_id,
    rr_outcome (render cf fuel name data_id data calls_left bytes_left first_id) = Ok tt ->
    render_xj cf fuel name data_id data calls_left bytes_left first_id
    = render cf fuel name data_id data calls_left bytes_left first_id.
Proof. exact render_x_agrees. Qed.
Print Assumptions C06_render_x_agrees.

Example C06_ex_json :
  dir_json (Some (VList 5 [VInt 1; VUndef; VStr (b "a<b"); VMap 6 [(b "k", VBool true); (b "a", VNull)]])) []
    = Ok (Some (VStr (b "[1,null,""a\u003cb"",{""a"":null,""k"":true}]")))
  /\ is_err (dir_json (Some (VFloat FNaN)) []) = true
  /\ dir_json (Some (VFloat (FFin 3 (-1)))) [] = Ok (Some (VStr (b "1.5")))
  /\ dir_json (Some (VList 0 [])) [] = Ok (Some (VStr (if json_nil_null then b "null" else b "[]")))   (* a nil list: [] since /repo 234aef6, read from the source *)
  /\ dir_json None [] = Ok (Some (VStr (b "null"))).
Proof. vm_compute. repeat split; reflexivity. Qed.
Example C06_ex_round_digits :
  round_x [VFloat (FFin 5 (-1)); VInt 1] = Ok (VFloat (FFin 5 (-1)))           (* round(2.5, 1) = 2.5 *)
  /\ round_x [VFloat (FFin 5 (-2)); VInt 1] = OutOfModel                        (* round(1.25, 1) = 1.3 *)
  /\ round_x [VFloat (FFin 5 (-1))] = Ok (VInt 3).
Proof. vm_compute. repeat split; reflexivity. Qed.

(* ================================================================== *)
(* Non-vacuity                                                         *)
(* ================================================================== *)

Definition ex_src : bstr := Eval vm_compute in
  b "{namespace a}{template .t}x{1 < 'a'}{call .u /}{/template}{template .u}y{$ij.k}{/template}".
Definition ex_t : node :=
  NTemplate 13 (b "a.t") (NList 26 [NRawText 26 (b "x");
                                    NPrint 27 (NBin OLt 28 (NInt 28 1) (NString 32 (b "'a'") (b "a"))) [];
                                    NCall 37 (b "a.u") false None []]) 0 false.
Definition ex_u : node :=
  NTemplate 59 (b "a.u") (NList 72 [NRawText 72 (b "y"); NPrint 73 (NDataRef 74 (b "ij") [NAccKey 77 false (b "k")]) []]) 0 false.
Definition ex_reg : registry :=
  {| r_templates := [ {| t_name := b "a.t"; t_node := ex_t; t_ns_name := b "a"; t_ns_autoescape := 0; t_params := []; t_file := b "f.soy" |};
                      {| t_name := b "a.u"; t_node := ex_u; t_ns_name := b "a"; t_ns_autoescape := 0; t_params := []; t_file := b "f.soy" |} ];
     r_sources := [(b "a.t", ex_src); (b "a.u", ex_src)];
     r_files := [(b "a.t", b "f.soy"); (b "a.u", b "f.soy")] |}.
Definition ex_cf : cfg := {| c_reg := ex_reg; c_ij := None; c_oblig := []; c_msgs := None |}.
Definition ex_rank (name : bstr) : nat := if bstr_eqb name (b "a.t") then 1%nat else 0%nat.

Example C06_ex_reg_ok : reg_ok ex_reg = true.
Proof. vm_compute. reflexivity. Qed.
Example C06_ex_reg_ranked : reg_ranked ex_rank ex_reg = true.
Proof. vm_compute. reflexivity. Qed.
(* the ill-typed comparison is an error value with file and line, after one accepted write *)
Example C06_ex_render_err :
  let r := render ex_cf 100 (b "a.t") 2 [] None None 10 in
  is_err (rr_outcome r) = true /\ rr_writes r = [b "x"] /\ rr_file r = b "f.soy" /\ rr_line r = 1.
Proof. vm_compute. repeat split; reflexivity. Qed.
(* an error raised inside the called template (no injected data) comes back as an error value too *)
Example C06_ex_render_nested_err :
  is_err (rr_outcome (render ex_cf 100 (b "a.u") 2 [] None None 10)) = true.
Proof. vm_compute. reflexivity. Qed.
(* the fuel bound of C06_render_total_ranked on this bundle *)
Example C06_ex_fuel : (reg_height ex_reg * S (ex_rank (b "a.t")) = 10)%nat.
Proof. vm_compute. reflexivity. Qed.

(* two inputs under the same (empty) file name, a long one and a short one: well-formed, and an error at
   the end of the long one is reported against the long one's own text (line 3) *)
Definition same_long : bstr := Eval vm_compute in
  b ("{namespace l}" ++ String (ascii_of_N 10) ("// padding padding padding padding padding" ++ String (ascii_of_N 10) "{template .t}{1 < 'a'}{/template}")).
Definition same_short : bstr := Eval vm_compute in b "{namespace s}{template .t}x{/template}".
Definition same_reg : registry :=
  {| r_templates := [ {| t_name := b "l.t"; t_node := NTemplate 57 (b "l.t") (NList 70 [NPrint 70 (NBin OLt 71 (NInt 71 1) (NString 75 (b "'a'") (b "a"))) []]) 0 false;
                         t_ns_name := b "l"; t_ns_autoescape := 0; t_params := []; t_file := [] |};
                      {| t_name := b "s.t"; t_node := NTemplate 13 (b "s.t") (NList 26 [NRawText 26 (b "x")]) 0 false;
                         t_ns_name := b "s"; t_ns_autoescape := 0; t_params := []; t_file := [] |} ];
     r_sources := [(b "l.t", same_long); (b "s.t", same_short)];
     r_files := [(b "l.t", []); (b "s.t", [])] |}.
Example C06_ex_same_file_name :
  reg_ok same_reg = true /\
  let r := render {| c_reg := same_reg; c_ij := None; c_oblig := []; c_msgs := None |} 100 (b "l.t") 2 [] None None 10 in
  is_err (rr_outcome r) = true /\ rr_line r = 3.
Proof. vm_compute. repeat split; reflexivity. Qed.

(* a RECURSIVE bundle: .down calls itself n times on the data.  The run on n = 3 stays within 3 nested
   calls and not within 2; reg_height * (3 + 1) = 36 fuel gives the output *)
Definition rec_down : node :=
  NTemplate 13 (b "r.down")
    (NList 30 [NIf 30 [NIfCond 30 (Some (NBin OGt 37 (NDataRef 34 (b "n") []) (NInt 39 0)))
                          (NList 41 [NPrint 41 (NDataRef 42 (b "n") []) [];
                                     NCall 45 (b "r.down") false None
                                       [NParamValue 57 (b "n") (NBin OSub 69 (NDataRef 66 (b "n") []) (NInt 71 1))]]);
                        NIfCond 82 None (NList 88 [NRawText 88 (b "end")])]]) 0 false.
Definition rec_reg : registry :=
  {| r_templates := [ {| t_name := b "r.down"; t_node := rec_down; t_ns_name := b "r"; t_ns_autoescape := 0; t_params := [(b "n", true)]; t_file := b "r.soy" |} ];
     r_sources := [(b "r.down", repeat 32 100)];
     r_files := [(b "r.down", b "r.soy")] |}.
Definition rec_cf : cfg := {| c_reg := rec_reg; c_ij := None; c_oblig := []; c_msgs := None |}.
Definition rec_st0 (n : Z) : mstate :=
  init_state (sc_enter (new_scope 2 [(b "n", VInt n)])) (entry_mode 0) (b "r.down") None None 10.

Example C06_ex_rec_reg_ok : reg_ok rec_reg = true /\ reg_height rec_reg = 9%nat.
Proof. vm_compute. split; reflexivity. Qed.
Example C06_ex_rec_depth : run_depth_le rec_cf 3 rec_down (rec_st0 3).
Proof. exists 100%nat. split; vm_compute; discriminate. Qed.
Example C06_ex_rec_depth_tight : fst (walk_cap rec_cf 2 100 rec_down (rec_st0 3)) = Err e_capped.
Proof. vm_compute. reflexivity. Qed.
Example C06_ex_rec_render :
  let r := render rec_cf 36 (b "r.down") 2 [(b "n", VInt 3)] None None 10 in
  rr_outcome r = Ok tt /\ concat_b (rr_writes r) = b "321end".
Proof. vm_compute. split; reflexivity. Qed.

(* the byte-string entry points really scan, parse and evaluate *)
Example C06_ex_eval_bytes :
  eval_expr_bytes 20 (b "1 + 2 * 3") = Ok (VInt 7)
  /\ is_err (eval_expr_bytes 20 (b "1 < 'a'")) = true
  /\ is_err (eval_expr_bytes 20 (b "1 +")) = true
  /\ is_err (eval_expr_bytes 20 (b "'unterminated")) = true.
Proof. vm_compute. repeat split; reflexivity. Qed.
Example C06_ex_globals_bytes :
  parse_globals_bytes 20 (b ("a = 1 + 1" ++ String (ascii_of_N 10) ("// c = 3" ++ String (ascii_of_N 10) "b.c = 'x'")))
  = Ok [(b "a", VInt 2); (b "b.c", VStr (b "x"))]
  /\ is_err (parse_globals_bytes 20 (b "a = -'x'")) = true.
Proof. vm_compute. split; reflexivity. Qed.

(* ================================================================== *)
(* The pinned behaviours, as witnesses                                 *)
(* ================================================================== *)

(* a template name defined in two files: Template() finds the first file's nodes, the source map
   holds the last file's text; an error at a node beyond that text panics inside errRecover *)
Definition dup_reg : registry :=
  {| r_templates := [ {| t_name := b "a.t"; t_node := NTemplate 300 (b "a.t") (NList 309 [NPrint 309 (NBin OLt 310 (NInt 310 1) (NString 314 (b "'a'") (b "a"))) []]) 0 false;
                         t_ns_name := b "a"; t_ns_autoescape := 0; t_params := []; t_file := b "short.soy" |};
                      {| t_name := b "a.t"; t_node := NTemplate 14 (b "a.t") (NList 27 [NRawText 27 (b "x")]) 0 false;
                         t_ns_name := b "a"; t_ns_autoescape := 0; t_params := []; t_file := b "short.soy" |} ];
     r_sources := [(b "a.t", b "{namespace a}{template .t}x{/template}")];
     r_files := [(b "a.t", b "short.soy")] |}.

Theorem C06_duplicate_names_refuted :
  reg_ok dup_reg = false /\
  exists m, rr_outcome (render {| c_reg := dup_reg; c_ij := None; c_oblig := []; c_msgs := None |} 100 (b "a.t") 2 [] None None 10) = Crash m.
Proof. split; [vm_compute; reflexivity | eexists; vm_compute; reflexivity]. Qed.
Print Assumptions C06_duplicate_names_refuted.

(* before 7dace66: every evaluation error of EvalExpr escapes through the handler; witness 1 < 'a' *)
Theorem C06_eval_expr_pinned_refuted :
  exists n m, eval_expr_impl false 10 n = Crash m.
Proof. exists (NBin OLt 2 (NInt 0 1) (NString 4 (b "'a'") (b "a"))). eexists. vm_compute. reflexivity. Qed.
Print Assumptions C06_eval_expr_pinned_refuted.

(* before 1d02d41 / 3930821: the loop of range(0, 5, 0) and of range(0, MaxInt64, 2^62) has no exit
   (for EVERY budget the loop is still running: divergence, not a large finite run) *)
Theorem C06_range_pinned_step0_diverges : forall fuel, range_loop_pinned fuel 0 5 0 = Diverge.
Proof. exact range_pinned_step0_diverges. Qed.
Print Assumptions C06_range_pinned_step0_diverges.

Theorem C06_range_pinned_overflow_diverges : forall fuel, range_loop_pinned fuel 0 max_int two62 = Diverge.
Proof. intros fuel. apply range_pinned_overflow_diverges. Qed.
Print Assumptions C06_range_pinned_overflow_diverges.

(* ================================================================== *)
(* The JavaScript generator: soyjs.Write                               *)
(* ================================================================== *)
(* soyjs.Write runs under `defer errRecover(&err)`, and soyjs's errRecover turns EVERY recovered panic value
   into the returned error (unlike soyhtml's, it does not re-panic run-time errors).  So for Go "Write returns
   nil or an error" can fail in two ways only: the call does not end, or the run time dies of something recover
   cannot catch (stack exhaustion).  Model/JsGen.v [gen_file] is a total function with explicit outcomes:
   [Err] = s.errorf (a deliberate panic, recovered into the error), [Crash] = a RUN-TIME panic inside the
   generator (it would be recovered into an error too, but it is the generator's defect, not an answer),
   [Diverge] = a loop without exit, [OutOfFuel] = the recursion budget.  The theorem: whatever the options,
   the file and the budget, [gen_file] never yields [Crash] or [Diverge] -- in the model recover only ever
   sees s.errorf's own panics: the only origin of a Crash is scope.go's stack[len-1] on an empty stack, and
   the walker keeps the scope stack balanced (Hoare triple on its length through every visitor).

   Second theorem (fuel adequacy): the budgets of the model are only there to make its definitions structural.
   With a budget of the HEIGHT of the file's tree (Spec/SafetyJs.v [jw_height]: one level per node along the
   children the walker hands to s.walk / s.block; a global counts the depth of its value, which nodeFromValue
   turns into nested literals) [gen_file] ANSWERS: Ok (the script), Err (s.errorf) or OutOfModel (a float literal
   outside the printer's domain, a node of a kind the Go field types exclude) -- so the Go recursion is bounded by
   the nesting of the tree and ends.  The inner loops never run out of the budget the model gives them, on any
   tree: MsgNode.Placeholder's queue and visitMsg's children loop under [msg_size body], visitNamespace under the
   length of the name ([inner_budgets_suffice] for the two that are not inside the walker's recursion).
   The harness runs soyjs.Write on accepted bundles (deep nests, stale message bundles, failing and panicking
   writers) in worker subprocesses and observes {nil, error, escaped panic, fatal, hang}.
   Run-time panics the harness does see recovered ("index out of range" for a builtin called with too few
   arguments: C14 finding js-write-error-function-arity; every such case is explained in the worker by an
   under-arity call in the file) are sites Model/JsGen.v models as [Err]. *)
Theorem C06_js_write_no_escape :
  forall o fuel name body,
    match gen_file o fuel name body with Crash _ | Diverge => False | _ => True end.
Proof. exact gen_file_no_crash. Qed.
Print Assumptions C06_js_write_no_escape.

Theorem C06_js_write_answers :
  forall o fuel name body,
    (jw_hmax body <= fuel)%nat ->
    match gen_file o fuel name body with Ok _ | Err _ | OutOfModel => True | _ => False end.
Proof. exact gen_file_answers. Qed.
Print Assumptions C06_js_write_answers.

Theorem C06_js_inner_budgets_suffice :
  (forall body name, jfind_placeholder (msg_size body) body name <> OutOfFuel) /\
  (forall name, jnf (ns_decls (S (length name)) name 0)).
Proof. exact inner_budgets_suffice. Qed.
Print Assumptions C06_js_inner_budgets_suffice.

(* the budget is only an approximation index: an answer obtained with some budget is the answer with every larger
   one (relation "OutOfFuel, or both agree" between two recursive calls, through every visitor:
   Proofs/SafetyJsMono.v), so from the height of the tree on the answer does not depend on the budget *)
Theorem C06_js_write_fuel_monotone :
  forall o f k name body,
    gen_file o f name body <> OutOfFuel -> gen_file o (f + k) name body = gen_file o f name body.
Proof. exact gen_file_fuel_monotone. Qed.
Print Assumptions C06_js_write_fuel_monotone.

Theorem C06_js_write_fuel_independent :
  forall o f1 f2 name body,
    (jw_hmax body <= f1)%nat -> (jw_hmax body <= f2)%nat -> gen_file o f1 name body = gen_file o f2 name body.
Proof. exact gen_file_fuel_independent. Qed.
Print Assumptions C06_js_write_fuel_independent.

(* the bound is the height, and it is tight: the example file has height 3; 3 suffices, 2 does not *)
Example C06_ex_js_height :
  let body := [NNamespace 0 (b "a") 0; NTemplate 0 (b "a.t") (NList 0 [NRawText 0 (b "x")]) 0 false] in
  let o := {| o_fmt := ES5; o_msgs := None; o_order := fun l => l |} in
  jw_hmax body = 3%nat /\
  (exists cs, gen_file o 3 (b "f.soy") body = Ok cs) /\ gen_file o 2 (b "f.soy") body = OutOfFuel.
Proof. vm_compute. split; [reflexivity|]. split; [eexists; reflexivity | reflexivity]. Qed.

(* encoding/json's float layout (Model/NumJson.v, used by the extended model's |json): whatever the float and its
   digits, the text consists of digits, sign, point and exponent mark; and each of the four layouts is one RFC 8259
   number for every digit string without a leading zero.  (That the DIGITS are the shortest that read back as the
   float is tied by correspondence only: op c06_fl_json against json.Marshal.) *)
Theorem C06_json_float_chars :
  forall x s, fl_to_json x = Some s -> Forall jnum_char s.
Proof. exact fl_to_json_chars. Qed.
Print Assumptions C06_json_float_chars.

Theorem C06_json_float_layout_reads :
  forall sign ds dp rest,
    (sign = [] \/ sign = [45]) -> (exists d r, ds = d :: r /\ d <> 48) -> Forall is_digit_byte ds -> stop_num rest ->
    exists v, json_number (fmt_json sign ds dp ++ rest) = Some (v, rest).
Proof. exact fmt_json_reads. Qed.
Print Assumptions C06_json_float_layout_reads.

(* ... and the digit string of the shortest-digits search is that of a positive integer (no sign, no leading zero),
   so the text of EVERY float json.Marshal has a text for is ONE number of RFC 8259, read completely *)
Theorem C06_json_float_is_number :
  forall x s rest, fl_to_json x = Some s -> stop_num rest -> exists v, json_number (s ++ rest) = Some (v, rest).
Proof. exact fl_to_json_reads. Qed.
Print Assumptions C06_json_float_is_number.

Example C06_ex_json_float_layouts :
  fl_to_json (FFin 1 70) = Some (b "1.1805916207174113e+21") /\ fl_to_json (FFin 5 (-1)) = Some (b "2.5") /\
  fl_to_json (FFin 1 (-20)) = Some (b "9.5367431640625e-7") /\ fl_to_json (FFin 25 2) = Some (b "100").
Proof. vm_compute. repeat split; reflexivity. Qed.

(* non-vacuity: a file with a namespace and one template (body: one raw text) is generated *)
Example C06_ex_js_gen :
  exists cs, gen_file {| o_fmt := ES5; o_msgs := None; o_order := fun l => l |} 50 (b "f.soy")
    [NNamespace 0 (b "a") 0; NTemplate 0 (b "a.t") (NList 0 [NRawText 0 (b "x")]) 0 false] = Ok cs.
Proof. eexists. vm_compute. reflexivity. Qed.
