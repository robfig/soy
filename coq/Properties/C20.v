(* C20 — Go values convert faithfully to Soy data and the value laws hold.  Property theorems only.
   Model: Model/Convert.v (data/convert.go), Model/Values.v (data/value.go).  Spec: Spec/ConvertSpec.v.
   [hi] is unicode.ToLower above ASCII (any function); [lc] is StructOptions.LowerCamel. *)
From Coq Require Import Permutation.
(* source tie by translation: the lemmas of these files are obligations of this property *)
From Soy Require Import Proofs.SourceTieData.
From Soy Require Import Model.Bytes Model.Num Model.Outcome Model.Utf8 Model.Values Model.Convert
  Spec.ConvertSpec Generated.Tables Proofs.ValueProofs Proofs.ConvertProofs Proofs.ValueTieProofs.
Open Scope N_scope.

(* ---- conversion ---- *)

(* The result has the structure and the scalar values of the Go value: struct fields appear under their
   lowerCamel names, unexported fields do not appear, pointers and interfaces are transparent at any depth,
   an unsigned integer that no Int can hold becomes the nearest Float (Spec/ConvertSpec.v), for values of
   unbounded nesting.  No guard on the size of unsigned integers: the statement is about the converter
   AFTER the repair /repo ff4fe6f = notes/applied/C20-uint64-float.diff; the pinned tree wraps an unsigned
   integer >= 2^63 to a negative Int (known finding uint64-wraps).
   [Err] is a panic (rejected kinds, non-string map keys);
   [OutOfModel] is exactly C20_convert_outofmodel below. *)
Theorem C20_convert_shape : forall hi lc g v,
  convert_with hi lc g = Ok v -> converts lc hi g v.
Proof. exact convert_shape. Qed.
Print Assumptions C20_convert_shape.

(* unsigned integers: below 2^63 the Int with the same value; from 2^63 on the Float nearest to it
   (relative error at most 2^-53: float64(u) rounds to nearest, ties to even), never a negative Int *)
Theorem C20_convert_uint_small : forall hi lc w z, (z < two63)%Z -> convert_with hi lc (GUint w z) = Ok (VInt z).
Proof. exact convert_uint_small. Qed.
Print Assumptions C20_convert_uint_small.

Theorem C20_convert_uint_big : forall hi lc w z, (two63 <= z)%Z ->
  exists m e, convert_with hi lc (GUint w z) = Ok (VFloat (FFin m e)) /\
              (0 <= e)%Z /\ (Z.abs (m * 2 ^ e - z) * two53 <= z)%Z.
Proof. exact convert_uint_big. Qed.
Print Assumptions C20_convert_uint_big.

Example C20_convert_uint_nonvacuous :
  convert_with (fun r => r) true (GUint 64 (two64 - 1)) = Ok (VFloat (FFin 1 64)) /\
  convert_with (fun r => r) true (GUint 64 two63) = Ok (VFloat (FFin 1 63)) /\
  convert_with (fun r => r) true (GUint 64 (two63 + 1024)) = Ok (VFloat (FFin 1 63)) /\          (* tie: to even *)
  convert_with (fun r => r) true (GUint 64 (two63 + 3072)) = Ok (VFloat (FFin 2251799813685249 12)) /\  (* tie: to even, upwards *)
  convert_with (fun r => r) true (GUint 64 (two63 - 1)) = Ok (VInt (two63 - 1)).
Proof. vm_compute. repeat split; reflexivity. Qed.

(* ---- pointer chains of any depth ([ptrs k g] = k pointers to g) ----
   Two or more pointers: NewWith's drilling loop, which past the first pointer does not look at method sets ... *)
Theorem C20_pointer_chain : forall lc hi k g n,
  conv lc hi CSlot (ptrs (S (S k)) g) n = conv lc hi CDeep g n.
Proof. exact conv_ptr_chain. Qed.
Print Assumptions C20_pointer_chain.

(* ... so a value-receiver Marshaler gives MarshalValue() when passed itself or through one pointer, and
   converts as the plain value it is (its struct fields ...) behind any longer chain *)
Theorem C20_marshaler_by_depth : forall lc hi k v u n,
  conv lc hi CSlot (GMarshal v u) n = Ok (v, n) /\
  conv lc hi CSlot (GPtr (Some (GMarshal v u))) n = Ok (v, n) /\
  conv lc hi CSlot (ptrs (S (S k)) (GMarshal v u)) n = conv lc hi CDeep u n.
Proof.
  intros lc hi k v u n. destruct (conv_marshal_direct lc hi v u n) as [H0 H1].
  split; [exact H0|]. split; [exact H1 | apply conv_marshal_deep].
Qed.
Print Assumptions C20_marshaler_by_depth.

(* ... an existing data.Value is returned as it is when passed itself, and behind two or more pointers
   becomes its plain image (same scalars; a new list / map with the same elements; Null and Undefined,
   being empty structs, an empty map) *)
Theorem C20_value_by_depth : forall lc hi k v n,
  conv lc hi CSlot (GValue v) n = Ok (v, n) /\
  exists r n', conv lc hi CSlot (ptrs (S (S k)) (GValue v)) n = Ok (r, n') /\ plain_of v r.
Proof. intros lc hi k v n. split; [reflexivity | apply conv_value_deep]. Qed.
Print Assumptions C20_value_by_depth.

(* ... and a nil pointer at the end of any chain is null, whatever it points to (a nil pointer to a value-receiver
   Marshaler included: the model describes the converter after the repair notes/applied/C20-nil-marshaler.diff; the pinned tree
   calls MarshalValue through it and panics, reported as known finding nil-marshaler-panics), with the one exception of
   the nil pointer to a data.Value type passed directly *)
Theorem C20_nil_pointer_chain : forall lc hi k m n,
  conv lc hi CSlot (ptrs k (GPtr None)) n = Ok (VNull, n) /\
  conv lc hi CSlot (ptrs k (GNilPtrTo true)) n = Ok (VNull, n) /\
  conv lc hi CSlot (ptrs (S k) (GNilPtrTo m)) n = Ok (VNull, n) /\
  conv lc hi CSlot (GNilPtrTo false) n = OutOfModel.
Proof. exact conv_nil_chain. Qed.
Print Assumptions C20_nil_pointer_chain.

(* What remains outside the model, exactly: OutOfModel arises only where NewWith meets a POINTER to one of
   the eight data.Value types (nil or not) at a place where it inspects the dynamic type -- the pointer
   satisfies data.Value through Go's method sets and is returned as it is, a data.Value that is none of
   the eight value types (the model's value type has no such inhabitant). *)
Theorem C20_convert_outofmodel : forall hi lc g,
  convert_with hi lc g = OutOfModel -> ptr_to_value CSlot g = true.
Proof. exact convert_outofmodel. Qed.
Print Assumptions C20_convert_outofmodel.

Example C20_pointer_chain_nonvacuous :
  let mar := GMarshal (VStr (b "custom")) (GStruct [(b "V", (true, (false, GIface (Some (GValue (VStr (b "custom")))))));
                                                      (b "Ignore", (true, (false, GInt 64 7)))]) in
  convert_with (fun r => r) true (GPtr (Some mar)) = Ok (VStr (b "custom")) /\
  convert_with (fun r => r) true (GPtr (Some (GPtr (Some mar)))) = Ok (VMap 2 [(b "ignore", VInt 7); (b "v", VStr (b "custom"))]) /\
  convert_with (fun r => r) true (GPtr (Some (GPtr (Some (GPtr (Some (GValue VNull))))))) = Ok (VMap 2 []) /\
  convert_with (fun r => r) true (GPtr (Some (GValue (VInt 3)))) = OutOfModel /\
  ptr_to_value CSlot (GSlice (Some [GInt 8 1; GPtr (Some (GValue (VInt 3)))])) = true.
Proof. vm_compute. repeat split; reflexivity. Qed.

Example C20_convert_nonvacuous :
  convert_with (fun r => r) true
    (GStruct [(b "Name", (true, (false, GStr (b "x"))));
              (b "hidden", (false, (false, GUnsupported)));
              (b "IDs", (true, (false, GSlice (Some [GUint 8 7; GPtr (Some (GInt 64 (-1))); GIface None]))))])
  = Ok (VMap 2 [(b "iDs", VList 3 [VInt 7; VInt (-1); VNull]); (b "name", VStr (b "x"))]).
Proof. vm_compute. reflexivity. Qed.

(* converting again changes nothing: same value, same identities *)
Theorem C20_convert_idempotent : forall hi lc g v,
  convert_with hi lc g = Ok v -> forall lc', convert_with hi lc' (GValue v) = Ok v.
Proof. exact convert_idempotent. Qed.
Print Assumptions C20_convert_idempotent.

(* lowerCamel: exactly the first code point is lowered *)
Theorem C20_lower_camel_ascii : forall hi c rest, c < 128 ->
  lower_camel_key hi (c :: rest) = (if (65 <=? c) && (c <=? 90) then c + 32 else c) :: rest.
Proof. exact lower_camel_ascii. Qed.
Print Assumptions C20_lower_camel_ascii.

Theorem C20_lower_camel_rune : forall hi r rest, valid_rune r ->
  lower_camel_key hi (encode_rune r ++ rest) = encode_rune (to_lower hi r) ++ rest.
Proof. exact lower_camel_rune. Qed.
Print Assumptions C20_lower_camel_rune.

Example C20_lower_camel_nonvacuous :
  lower_camel_key (fun r => if r =? 201 then 233 else r) (b "URLs") = b "uRLs" /\
  lower_camel_key (fun r => if r =? 201 then 233 else r) [195; 137; 116; 195; 137] = [195; 169; 116; 195; 137].
Proof. split; vm_compute; reflexivity. Qed.

(* ---- laws of the values ---- *)

Theorem C20_equals_sym : forall a c, equals a c = equals c a.
Proof. exact equals_sym. Qed.
Print Assumptions C20_equals_sym.

(* Int against Float compares the numbers (the float m*2^e with the integer x), |x| <= 2^53 *)
Theorem C20_equals_numeric : forall x f, fl_canon f -> (Z.abs x <= two53)%Z ->
  (equals (VInt x) (VFloat f) = true <-> fl_is_int f x) /\ (equals (VFloat f) (VInt x) = true <-> fl_is_int f x).
Proof. intros x f Hc Hx; split; [exact (equals_int_float x f Hc Hx) | exact (equals_float_int x f Hc Hx)]. Qed.
Print Assumptions C20_equals_numeric.

Example C20_equals_numeric_nonvacuous :
  equals (VInt 3) (VFloat (FFin 3 0)) = true /\ equals (VInt 6) (VFloat (FFin 3 1)) = true /\
  equals (VInt 3) (VFloat (FFin 7 (-1))) = false /\ equals (VFloat (FZero true)) (VInt 0) = true.
Proof. repeat split; vm_compute; reflexivity. Qed.

(* reflexive on everything but NaN; never across kinds other than Int/Float *)
Theorem C20_equals_refl_scalars : forall v, equals v v = true <-> v <> VFloat FNaN.
Proof. exact equals_refl_iff. Qed.
Print Assumptions C20_equals_refl_scalars.

Theorem C20_equals_kinds : forall a c, equals a c = true -> vkind a = vkind c \/ (numeric a = true /\ numeric c = true).
Proof. exact equals_kinds. Qed.
Print Assumptions C20_equals_kinds.

(* exactly undefined, null, false, 0, +0.0, -0.0, NaN and "" are falsy *)
Theorem C20_truthy_table : forall v, truthy v = false <-> falsy_value v.
Proof. exact truthy_table. Qed.
Print Assumptions C20_truthy_table.

(* printing does not depend on the order in which Go enumerates the entries of a map,
   at the top (iff) and at any depth *)
Theorem C20_map_string_order_independent : forall i m m' s,
  Permutation m m' -> (value_string (VMap i m) = Ok s <-> value_string (VMap i m') = Ok s).
Proof. exact map_string_order_independent. Qed.
Print Assumptions C20_map_string_order_independent.

Theorem C20_value_string_order_independent : forall v v' s,
  vperm v v' -> value_string v = Ok s -> value_string v' = Ok s.
Proof. exact value_string_vperm. Qed.
Print Assumptions C20_value_string_order_independent.

Theorem C20_sort_strings_perm : forall l l', Permutation l l' -> sort_strings l = sort_strings l'.
Proof. exact sort_strings_perm. Qed.
Print Assumptions C20_sort_strings_perm.

Example C20_string_nonvacuous :
  value_string (VMap 2 [(b "b", VInt 1); (b "a", VList 3 [VFloat (FFin 3 (-1)); VNull])]) = Ok (b "{a: [1.5, null], b: 1}").
Proof. vm_compute. reflexivity. Qed.

(* ---- the hand model against the current Go source (regenerated on every run) ---- *)

Theorem C20_truthy_matches_source : forall v, truthy v = gen_truthy v.
Proof. exact gen_truthy_agrees. Qed.
Print Assumptions C20_truthy_matches_source.

Theorem C20_equals_matches_source : forall a c, equals a c = equals_by_mode (equals_mode (vkind a) (vkind c)) a c.
Proof. exact gen_equals_agrees. Qed.
Print Assumptions C20_equals_matches_source.
