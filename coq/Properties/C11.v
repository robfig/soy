(* C11 — Extracted messages round-trip: translations land on the right
   placeholders.  The proofs are in Proofs/MsgParts*, MsgCat*, MsgPlural*, MsgJs*,
   Po*, MsgWalkEq*, MsgThreeSided and the MiniJS* files; what is proved here are
   the examples and the refutations of the pinned code.
   The model (Model/MsgParts.v) is the tree with the three C11 repairs
   (b7ce862, 1664d1a, b24e43c); the pinned code is refuted at the end.

   Hand models of library code, tied by the correspondence: the PO file reader and
   writer (robfig/gettext/po: Model/Po*.v, the C11_po_* theorems).  Outside the model,
   tied by the correspondence only: the locale fall-back computation
   (golang.org/x/text/language) and the execution of the generated JavaScript (node);
   the generator itself is Model/JsGen.v (the C11_js_* theorems). *)
From Coq Require Import Permutation.
(* source tie by translation: the lemmas of these files are obligations of this property *)
From Soy Require Import Proofs.SourceTieMsg Proofs.SourceTiePo Proofs.SourceTieMsgLoops.
From Soy Require Import Proofs.MsgIdProofs.
From Soy Require Import Model.Bytes Model.Outcome Model.Num Model.Values Model.Ast Model.MsgId
  Model.Escape Model.Interp Model.MsgParts Spec.MsgCat Proofs.MsgPartsProofs Proofs.InterpRelProofs Proofs.InterpPosProofs Proofs.MsgCatProofs
  Proofs.MsgPluralProofs Model.PoFile Proofs.PoFileProofs Model.JsGen Proofs.MsgJsProofs
  Model.PoEntry Proofs.PoEntryProofs Model.PoBundle Proofs.PoBundleProofs Model.PoHeader Proofs.PoHeaderProofs Proofs.PoCatalogueRender Model.MiniJS Proofs.InterpGuard Proofs.MiniJSProofs Proofs.MiniJSPrint Proofs.MiniJSCtl Proofs.MiniJSGo Proofs.MiniJSStmt Proofs.MiniJSGen Proofs.MiniJSSim Proofs.MsgWalkEq Proofs.MsgWalkEqCalls Proofs.MsgThreeSided.
Open Scope N_scope.

(* ------------------------------------------------------------------ *)
(* soymsg.Parts inverts the printer of placeholder strings             *)
(* ------------------------------------------------------------------ *)

(* Parts (PlaceholderString m) = the message's own part list (adjacent raw
   texts joined), for every message without plural whose raw text contains no
   brace and whose placeholder names are in [A-Z0-9_]+ *)
Theorem C11_parts_phstring : forall l,
  Forall nflat l ->
  (forall t, In (NmText t) l -> no_brace t) -> (forall n, In (NmPh n) l -> name_ok n) ->
  parts (write_fp_list true l) = merge_texts (flat_map npart_part l).
Proof. exact parts_phstring. Qed.
Print Assumptions C11_parts_phstring.

(* sharper: raw text may contain braces as long as no text run of the normal
   form contains a {[A-Z0-9_]+} token *)
Theorem C11_parts_print : forall l, parts_clean (merge_texts l) -> parts (print_parts l) = merge_texts l.
Proof. exact parts_print. Qed.
Print Assumptions C11_parts_print.

(* Parts finds exactly the body's parts as soon as it finds exactly the body's
   placeholder NAMES (what the repaired Validate compares) *)
Theorem C11_names_decide : forall l,
  part_names (parts (print_parts l)) = part_names l -> parts (print_parts l) = merge_texts l.
Proof. exact names_decide. Qed.
Print Assumptions C11_names_decide.

(* ------------------------------------------------------------------ *)
(* pomsg.Validate: accepted = the msgid reads back as the message       *)
(* ------------------------------------------------------------------ *)

Theorem C11_validate_flat : forall body,
  forallb flat_node body = true ->
  (validate body = Ok tt <-> parts (write_body body) = merge_texts (body_parts body)).
Proof. exact validate_flat. Qed.
Print Assumptions C11_validate_flat.

Theorem C11_validate_plural : forall p vn pv pc cb dflt,
  validate [NMsgPlural p vn pv [NMsgPluralCase pc 1%Z cb] dflt] = Ok tt <->
  (write_body cb <> [] /\ write_body dflt <> []) /\
  (forallb flat_node cb = true /\ parts (write_body cb) = merge_texts (body_parts cb)) /\
  (forallb flat_node dflt = true /\ parts (write_body dflt) = merge_texts (body_parts dflt)).
Proof. exact validate_plural. Qed.
Print Assumptions C11_validate_plural.

(* nothing representable is refused *)
Theorem C11_validate_complete : forall body,
  forallb flat_node body = true -> parts_clean (merge_texts (body_parts body)) -> reads_back body = true.
Proof. exact reads_back_complete. Qed.
Print Assumptions C11_validate_complete.

(* ------------------------------------------------------------------ *)
(* rendering with a catalogue, for every walker w (open recursion)      *)
(* ------------------------------------------------------------------ *)

(* A translation is a list of text segments and of placeholder occurrences of
   the source; the translator writes [msgstr_of tr]; rendering writes every text
   segment and fills every placeholder slot by rendering the first placeholder of
   the message that carries the slot's name ([resolve]) -- no hypothesis on the
   names. *)
Theorem C11_translation_places_values : forall plural_index bd w mp id body tr,
  forallb flat_node body = true -> items_named body tr ->
  parts_clean (map item_part tr) ->
  bundle_message bd id = Some (new_message [] [msgstr_of tr]) ->
  eval_msg plural_index bd w mp id body = run_items w (map (resolve body) tr).
Proof. exact translation_places_values. Qed.
Print Assumptions C11_translation_places_values.

(* [coherent body]: placeholders carrying one name are the same code (the same
   node up to positions).  Then every slot holds the code the translation names. *)
Theorem C11_resolve_same : forall phs tr, coherent phs -> items_from phs tr -> same_items (map (resolve phs) tr) tr.
Proof. exact resolve_same. Qed.
Print Assumptions C11_resolve_same.

(* in particular a translation whose placeholders are a permutation of the source's *)
Theorem C11_reorder_catalogue : forall plural_index bd w mp id body tr,
  forallb flat_node body = true ->
  Permutation (ph_items tr) (ph_items (source_items body)) ->
  parts_clean (map item_part tr) ->
  bundle_message bd id = Some (new_message [] [msgstr_of tr]) ->
  eval_msg plural_index bd w mp id body = run_items w (map (resolve body) tr).
Proof. exact reorder_catalogue. Qed.
Print Assumptions C11_reorder_catalogue.

Theorem C11_reorder_same : forall body tr,
  coherent body -> Permutation (ph_items tr) (ph_items (source_items body)) ->
  same_items (map (resolve body) tr) tr.
Proof. exact reorder_same. Qed.
Print Assumptions C11_reorder_same.

(* the identity translation (msgstr = msgid) of a message that Validate accepts
   renders the message's own text segments and placeholders in source order *)
Theorem C11_identity_flat : forall plural_index bd w mp id body,
  reads_back body = true ->
  bundle_message bd id = Some (new_message [] [write_body body]) ->
  eval_msg plural_index bd w mp id body = run_items w (map (resolve body) (identity_items body)).
Proof. exact identity_flat. Qed.
Print Assumptions C11_identity_flat.

(* a message that is not in the catalogue is rendered from its source *)
Theorem C11_missing_falls_back : forall plural_index bd w mp id body,
  bundle_message bd id = None -> eval_msg plural_index bd w mp id body = msg_body w mp body.
Proof. exact missing_msg. Qed.
Print Assumptions C11_missing_falls_back.

Theorem C11_missing_node : forall cf plural_index bd w mp id mn ds body,
  bundle_message bd id = None ->
  walk_body_b cf plural_index bd w (NMsg mp id mn ds body) = walk_body cf w (NMsg mp id mn ds body).
Proof. exact missing_node. Qed.
Print Assumptions C11_missing_node.

(* plural: the form is msgstr[plural_index n] *)
Theorem C11_plural_selects : forall plural_index bd w mp id p vn pv cases dflt strs st,
  vn <> [] \/ length strs <> 1%nat ->
  bundle_message bd id = Some (new_message vn strs) ->
  eval_msg plural_index bd w mp id [NMsgPlural p vn pv cases dflt] st =
  (v <-- eval w pv ;;;
   match v with
   | VInt i => eval_form w [NMsgPlural p vn pv cases dflt] strs (plural_index i)
   | _ => fail e_plural
   end) st.
Proof. exact plural_selects. Qed.
Print Assumptions C11_plural_selects.

(* ... and a form renders its items where the translation puts them *)
Theorem C11_plural_form_places_values : forall w p vn pv pc cv cb dflt strs k tr,
  forallb flat_node cb = true -> forallb flat_node dflt = true ->
  items_named (dflt ++ cb) tr ->
  nth_error strs k = Some (msgstr_of tr) -> parts_clean (map item_part tr) ->
  eval_form w [NMsgPlural p vn pv [NMsgPluralCase pc cv cb] dflt] strs k = run_items w (map (resolve (dflt ++ cb)) tr).
Proof. exact plural_form_places_values. Qed.
Print Assumptions C11_plural_form_places_values.

Theorem C11_identity_form : forall w p vn pv pc cv cb dflt strs k src,
  reads_back cb = true -> reads_back dflt = true ->
  (src = cb \/ src = dflt) ->
  nth_error strs k = Some (write_body src) ->
  eval_form w [NMsgPlural p vn pv [NMsgPluralCase pc cv cb] dflt] strs k =
  run_items w (map (resolve (dflt ++ cb)) (identity_items src)).
Proof. exact identity_form. Qed.
Print Assumptions C11_identity_form.

(* both in one: a PO plural with ANY number of forms (ja 1, en 2, ru 3 ...) under EVERY plural selector
   renders form plural_index n, its text where that form's translation puts it and its slots filled with
   the message's placeholders of those names; a selector that points outside the forms is an error *)
Theorem C11_plural_places_values : forall plural_index bd w mp id p vn pv pc cv cb dflt (trs : list (list titem)) st,
  vn <> [] \/ length trs <> 1%nat ->
  bundle_message bd id = Some (new_message vn (map msgstr_of trs)) ->
  forallb flat_node cb = true -> forallb flat_node dflt = true ->
  Forall (fun tr => items_named (dflt ++ cb) tr /\ parts_clean (map item_part tr)) trs ->
  eval_msg plural_index bd w mp id [NMsgPlural p vn pv [NMsgPluralCase pc cv cb] dflt] st =
  (v <-- eval w pv ;;;
   match v with
   | VInt i => match nth_error trs (plural_index i) with
               | Some tr => run_items w (map (resolve (dflt ++ cb)) tr)
               | None => fail e_plural_index
               end
   | _ => fail e_plural
   end) st.
Proof. exact plural_places_values. Qed.
Print Assumptions C11_plural_places_values.

(* ------------------------------------------------------------------ *)
(* the JavaScript backend: what soyjs generates for a translated message *)
(* ------------------------------------------------------------------ *)

(* soyjs resolves the catalogue when it GENERATES code (Model/JsGen.v visit_msg / jeval_parts).  For every
   generator-walker w: the code for a flat message with a catalogue entry is, in the translation's order, an
   append statement for every text segment ([write_raw_text]) and the code of the first placeholder of the
   message carrying the slot's name -- [jrun_items w] over the SAME resolved item list
   [map (resolve body) tr] over which soyhtml runs [run_items] (C11_translation_places_values).  So the two
   backends agree on which text and which placeholder code stands where, as a theorem; that the JavaScript
   generated for a placeholder's code computes what soyhtml prints for it is C04's theorem where C04 covers
   the code (C04_gen_correct_partial_stmt: raw text, print with directives, ...) and correspondence elsewhere. *)
Theorem C11_js_translation_places_values : forall o w id body tr msgs,
  forallb flat_node body = true -> items_named body tr ->
  parts_clean (map item_part tr) ->
  o_msgs o = Some msgs -> assoc_n id msgs = Some (jparts_of_cmsg (new_message [] [msgstr_of tr])) ->
  visit_msg o w id body = jrun_items w (map (resolve body) tr).
Proof. exact js_translation_places_values. Qed.
Print Assumptions C11_js_translation_places_values.

(* a PO plural: `switch (soy.$$pluralIndex(<value>))` with one case per msgstr, case i holding the items of
   form i (any number of forms; the selector is the embedding page's soy.$$pluralIndex) *)
Theorem C11_js_plural_places_values : forall o w id p vn pv pc cv cb dflt (trs : list (list titem)) msgs,
  vn <> [] \/ length trs <> 1%nat ->
  forallb flat_node cb = true -> forallb flat_node dflt = true ->
  Forall (fun tr => items_named (dflt ++ cb) tr /\ parts_clean (map item_part tr)) trs ->
  o_msgs o = Some msgs ->
  assoc_n id msgs = Some (jparts_of_cmsg (new_message vn (map msgstr_of trs))) ->
  visit_msg o w id [NMsgPlural p vn pv [NMsgPluralCase pc cv cb] dflt] =
  (jindent ;;; jtxt t_plural_open ;;; w pv ;;; jemit [CText t_plural_close; CText t_nl] ;;;
   indent_inc ;;;
   jplural_cases 0 (map (fun tr => jrun_items w (map (resolve (dflt ++ cb)) tr)) trs) ;;;
   indent_dec ;;; jsln [CText t_rbrace]) ;;; jret tt.
Proof. exact js_plural_places_values. Qed.
Print Assumptions C11_js_plural_places_values.

(* no bundle, or no entry: the source is generated *)
Theorem C11_js_missing_falls_back : forall o w id body,
  o_msgs o = None \/ (exists msgs, o_msgs o = Some msgs /\ assoc_n id msgs = None) ->
  visit_msg o w id body = jmsg_children w (msg_size body) body.
Proof. exact js_missing_falls_back. Qed.
Print Assumptions C11_js_missing_falls_back.

(* ------------------------------------------------------------------ *)
(* whole program: the identity (and any partial identity) catalogue     *)
(* ------------------------------------------------------------------ *)

(* [ident_ok plural_index bd id body] (Proofs/MsgCatProofs.v): the bundle has no
   entry for id, or its entry is the identity translation of the message --
   msgstr = msgid for a message that Validate accepts (reads_back), or, for a PO
   plural ({case 1}{default}), msgstr[plural_index n] = the msgid of the case the
   source selects for n (for every n: under n != 1 that is msgstr[0] = msgid,
   msgstr[1] = msgid_plural) -- with coherent placeholder names.
   [okP (ident_ok ..) n]: every {msg} node of the tree n satisfies it.
   [st_equiv]: machine states that differ only in how the bytes written so far
   are cut into Write calls and in the error-position register, fault-free
   writers.  [res_rel x y]: x ran out of the model's fuel, or x and y have the
   same outcome (value / error class) and equivalent states.
   [mrel m1 m2]: from equivalent states, res_rel (m1 s1) (m2 s2). *)

(* rendering without a catalogue is matched by rendering with it, at the same fuel *)
Theorem C11_identity_catalogue_walker : forall cf plural_index bd,
  Forall (fun t => okP (ident_ok plural_index bd) (t_node t)) (r_templates (c_reg cf)) ->
  forall f n, okP (ident_ok plural_index bd) n -> mrel (walk cf f n) (walk_b cf plural_index bd f n).
Proof. exact nocat_refines_cat. Qed.
Print Assumptions C11_identity_catalogue_walker.

(* ... and conversely (a translated message spends less fuel than its source: 2f+1 suffices) *)
Theorem C11_identity_catalogue_walker_conv : forall cf plural_index bd,
  Forall (fun t => okP (ident_ok plural_index bd) (t_node t)) (r_templates (c_reg cf)) ->
  forall f n, okP (ident_ok plural_index bd) n -> mrel (walk_b cf plural_index bd f n) (walk cf (2 * f + 1) n).
Proof. exact cat_refines_nocat. Qed.
Print Assumptions C11_identity_catalogue_walker_conv.

(* Renderer.Execute: a render that succeeds without the catalogue succeeds with
   it and writes the same bytes, and conversely *)
Theorem C11_identity_catalogue : forall cf plural_index bd,
  Forall (fun t => okP (ident_ok plural_index bd) (t_node t)) (r_templates (c_reg cf)) ->
  forall f name did data fid,
  rr_outcome (render cf f name did data None None fid) = Ok tt ->
  rr_outcome (render_b cf plural_index bd f name did data None None fid) = Ok tt /\
  concat_b (rr_writes (render_b cf plural_index bd f name did data None None fid)) =
  concat_b (rr_writes (render cf f name did data None None fid)).
Proof. exact render_nocat_to_cat. Qed.
Print Assumptions C11_identity_catalogue.

Theorem C11_identity_catalogue_conv : forall cf plural_index bd,
  Forall (fun t => okP (ident_ok plural_index bd) (t_node t)) (r_templates (c_reg cf)) ->
  forall f name did data fid,
  rr_outcome (render_b cf plural_index bd f name did data None None fid) = Ok tt ->
  rr_outcome (render cf (2 * f + 1) name did data None None fid) = Ok tt /\
  concat_b (rr_writes (render cf (2 * f + 1) name did data None None fid)) =
  concat_b (rr_writes (render_b cf plural_index bd f name did data None None fid)).
Proof. exact render_cat_to_nocat. Qed.
Print Assumptions C11_identity_catalogue_conv.

(* a render that fails without the catalogue fails with it, after the same bytes *)
Theorem C11_identity_catalogue_errors : forall cf plural_index bd,
  Forall (fun t => okP (ident_ok plural_index bd) (t_node t)) (r_templates (c_reg cf)) ->
  forall f name did data fid,
  rr_outcome (render cf f name did data None None fid) <> OutOfFuel ->
  is_ok (rr_outcome (render_b cf plural_index bd f name did data None None fid)) =
  is_ok (rr_outcome (render cf f name did data None None fid)) /\
  concat_b (rr_writes (render_b cf plural_index bd f name did data None None fid)) =
  concat_b (rr_writes (render cf f name did data None None fid)).
Proof. exact render_error_agrees. Qed.
Print Assumptions C11_identity_catalogue_errors.

(* [coherent] follows from C10's naming theorem once String() is injective on the
   message's placeholder nodes (C17's print_injective: an explicit hypothesis) *)
Theorem C11_coherent_of_naming : forall order mbody es nm (phs : list (N * bstr * bstr * node)),
  is_perm order -> msg_entries mbody = Ok es -> msg_names order mbody = Ok nm ->
  (forall p base str n, In (p, base, str, n) phs -> In (base, str) es) ->
  (forall p base str n p' base' str' n',
      In (p, base, str, n) phs -> In (p', base', str', n') phs -> str = str' -> pstrip n = pstrip n') ->
  coherent (map (ph_of nm) phs).
Proof. exact coherent_of_naming. Qed.
Print Assumptions C11_coherent_of_naming.

(* the walker renders the same code the same way wherever it stands in the source
   (up to the error-position register): what makes "the first placeholder with
   that name" as good as the one the translator meant *)
Theorem C11_walker_position_insensitive : forall cf (okm : N -> list node -> Prop),
  (forall body, okm 0 body) ->
  Forall (fun t => okP okm (t_node t)) (r_templates (c_reg cf)) ->
  forall f b1 b2, okP okm b1 -> okP okm b2 -> pstrip b1 = pstrip b2 -> mrel (walk cf f b1) (walk cf f b2).
Proof. exact walk_pos. Qed.
Print Assumptions C11_walker_position_insensitive.

(* the tree walker itself respects the equivalence (one unfolding, any related walkers) *)
Theorem C11_walker_parametric : forall cf (okm : N -> list node -> Prop),
  (forall body, okm 0 body) ->
  Forall (fun t => okP okm (t_node t)) (r_templates (c_reg cf)) ->
  forall w1 w2, (forall n, okP okm n -> mrel (w1 n) (w2 n)) ->
  forall n, okP okm n -> mrel (walk_body cf w1 n) (walk_body cf w2 n).
Proof. exact walk_body_rel. Qed.
Print Assumptions C11_walker_parametric.

(* ------------------------------------------------------------------ *)
(* non-vacuity: Hello {$name}, you have {$n} <b>new</b> messages         *)
(* ------------------------------------------------------------------ *)

Definition ex_name : node := NPrint 7 (NDataRef 8 (b "name") []) [].
Definition ex_n : node := NPrint 25 (NDataRef 26 (b "n") []) [].
Definition ex_name2 : node := NPrint 51 (NDataRef 52 (b "name") []) [].     (* {$name} once more, elsewhere *)
Definition ex_body : list node :=
  [NRawText 1 (b "Hello "); NMsgPlaceholder 7 (b "NAME") ex_name; NRawText 14 (b ", you have ");
   NMsgPlaceholder 25 (b "N") ex_n; NRawText 29 (b " "); NMsgPlaceholder 30 (b "START_BOLD") (NMsgHtmlTag 30 (b "<b>"));
   NRawText 33 (b "new"); NMsgPlaceholder 36 (b "END_BOLD") (NMsgHtmlTag 36 (b "</b>")); NRawText 40 (b " messages, ");
   NMsgPlaceholder 51 (b "NAME") ex_name2].

Example ex_msgid : msgid ex_body = Ok (b "Hello {NAME}, you have {N} {START_BOLD}new{END_BOLD} messages, {NAME}").
Proof. vm_compute. reflexivity. Qed.
Example ex_validate : validate ex_body = Ok tt.
Proof. vm_compute. reflexivity. Qed.
Example ex_reads_back : reads_back ex_body = true.
Proof. vm_compute. reflexivity. Qed.

(* "{N} messages for {NAME}": a translation that reorders and drops *)
Definition ex_tr : list titem :=
  [TPh 25 (b "N") ex_n; TText (b " messages pour "); TPh 7 (b "NAME") ex_name].
Example ex_tr_msgstr : msgstr_of ex_tr = b "{N} messages pour {NAME}".
Proof. vm_compute. reflexivity. Qed.
Example ex_tr_clean : parts_clean (map item_part ex_tr).
Proof. vm_compute. repeat split; discriminate. Qed.
Example ex_tr_from : items_from ex_body ex_tr.
Proof.
  intros p n bd H. cbn in H. destruct H as [H|[H|[H|[]]]]; try discriminate; injection H as <- <- <-; cbn; tauto.
Qed.
Example ex_coherent : coherent ex_body.
Proof.
  apply coherent_find. intros p n b H. cbn in H.
  repeat (destruct H as [H|H]; [try discriminate; injection H as <- <- <-; eexists; split; reflexivity|]). destruct H.
Qed.
(* the second {$name} is resolved to the first one: another node, the same code *)
Example ex_resolve : map (resolve ex_body) [TPh 51 (b "NAME") ex_name2] = [TPh 51 (b "NAME") ex_name] /\ ex_name <> ex_name2 /\ pstrip ex_name = pstrip ex_name2.
Proof. repeat split; [discriminate]. Qed.

(* the reversed plural-free catalogue of this message, end to end in the model *)
Example ex_parts_roundtrip : parts (b "{N} messages pour {NAME}") = [PPh (b "N"); PText (b " messages pour "); PPh (b "NAME")].
Proof. vm_compute. reflexivity. Qed.

(* the hypotheses of the whole-program theorems are satisfiable: a template with
   the message above and a PO plural, a catalogue holding their identity
   translations under the n != 1 rule *)
Definition ex_cb : list node := [NRawText 60 (b "one")].
Definition ex_dflt : list node := [NMsgPlaceholder 70 (b "N_2") ex_n; NRawText 74 (b " many")].
Definition ex_plural : list node :=
  [NMsgPlural 50 (b "N_1") (NDataRef 51 (b "n") []) [NMsgPluralCase 55 1%Z ex_cb] ex_dflt].
Definition ex_bd : bundle :=
  [(5, new_message [] [write_body ex_body]); (6, new_message (b "N_1") [write_body ex_cb; write_body ex_dflt])].
Definition ex_template : node :=
  NTemplate 0 (b "ns.t") (NList 0 [NMsg 0 5 [] (b "d") ex_body; NMsg 45 6 [] (b "p") ex_plural; NMsg 90 7 [] (b "absent") ex_cb]) 0 false.

Example ex_ident_flat : ident_ok plural_neq1 ex_bd 5 ex_body.
Proof.
  unfold ident_ok. replace (bundle_message ex_bd 5) with (Some (new_message [] [write_body ex_body])) by reflexivity.
  left. split; [vm_compute; reflexivity|]. split; [exact ex_coherent | reflexivity].
Qed.

Example ex_ident_plural : ident_ok plural_neq1 ex_bd 6 ex_plural.
Proof.
  unfold ident_ok.
  replace (bundle_message ex_bd 6) with (Some (new_message (b "N_1") [write_body ex_cb; write_body ex_dflt])) by reflexivity.
  right. exists 50, (b "N_1"), (NDataRef 51 (b "n") []), 55, ex_cb, ex_dflt, [write_body ex_cb; write_body ex_dflt].
  split; [reflexivity|]. split; [discriminate|]. split; [reflexivity|].
  split; [vm_compute; reflexivity|]. split; [vm_compute; reflexivity|]. split.
  - intros p1 p2 n b1 b2 H1 H2. cbn in H1, H2.
    destruct H1 as [H1|[H1|[H1|[]]]]; try discriminate. destruct H2 as [H2|[H2|[H2|[]]]]; try discriminate. congruence.
  - intros i. unfold plural_neq1. destruct (i =? 1)%Z; reflexivity.
Qed.

Example ex_okP : okP (ident_ok plural_neq1 ex_bd) ex_template.
Proof.
  cbn [okP fold_right ex_template ex_body ex_plural ex_cb ex_dflt ex_name ex_n snd].
  repeat split; try exact ex_ident_flat; try exact ex_ident_plural.
Qed.

(* three forms (ru): the hypotheses of C11_plural_places_values on the plural of ex_template *)
Definition ex_ru_trs : list (list titem) :=
  [[TPh 70 (b "N_2") ex_n; TText (b " soobshchenie")];
   [TPh 70 (b "N_2") ex_n; TText (b " soobshcheniya")];
   [TText (b "soobshcheniy: "); TPh 70 (b "N_2") ex_n]].
Definition ex_bd_ru : bundle := [(6, new_message (b "N_1") (map msgstr_of ex_ru_trs))].
Example ex_ru_msgstrs : map msgstr_of ex_ru_trs = [b "{N_2} soobshchenie"; b "{N_2} soobshcheniya"; b "soobshcheniy: {N_2}"].
Proof. vm_compute. reflexivity. Qed.
Example ex_ru_selector : map plural_russian [1; 2; 5; 11; 21; 22; 25; 111]%Z = [0; 1; 2; 2; 0; 1; 2; 2]%nat.
Proof. vm_compute. reflexivity. Qed.
Example ex_ru_three_forms : forall w st,
  eval_msg plural_russian ex_bd_ru w 45 6 ex_plural st =
  (v <-- eval w (NDataRef 51 (b "n") []) ;;;
   match v with
   | VInt i => match nth_error ex_ru_trs (plural_russian i) with
               | Some tr => run_items w (map (resolve (ex_dflt ++ ex_cb)) tr)
               | None => fail e_plural_index
               end
   | _ => fail e_plural
   end) st.
Proof.
  intros w st. apply plural_places_values; [left; discriminate|reflexivity|reflexivity|reflexivity|].
  repeat constructor;
    try (intros p n bd H; cbn in H; destruct H as [H|[H|[]]]; try discriminate; injection H as <- <- <-;
         exists 70, ex_n; cbn; tauto);
    try (vm_compute; repeat split; discriminate).
Qed.

(* ------------------------------------------------------------------ *)
(* the PO file: what the extractor / a PO tool writes is what pomsg reads *)
(* ------------------------------------------------------------------ *)

(* Model/PoFile.v models library code (strconv.Quote / Unquote, robfig/gettext/po writer.quo and
   scanner.quo, Message.WriteTo's and Parse's quoted fields); is_print stands for strconv.IsPrint on
   runes >= 0x80 and is arbitrary.  [bytes s]: every element of s is < 256. *)

(* strconv.Unquote inverts strconv.Quote on every byte string: any text, quotes, backslashes, control
   characters, newlines, invalid UTF-8, non-printable runes *)
Theorem C11_po_unquote_quote : forall is_print s, bytes s -> go_unquote (po_go_quote is_print s) = Ok s.
Proof. exact unquote_quote. Qed.
Print Assumptions C11_po_unquote_quote.

(* scanner.quo reads back what writer.quo wrote -- on one line or, for a value containing a newline, in the
   multi-line form -- and stops before the next line (reader keyword R, writer keyword R or R followed by a space) *)
Theorem C11_po_quo_roundtrip : forall is_print R sp val tail e,
  sp = [] \/ sp = [32] -> bytes val -> no_quote_next tail ->
  sc_quo R (scan_of (po_quo is_print (R ++ sp) val ++ tail) e) = Ok (val, scan_of tail e).
Proof. exact sc_quo_po_quo. Qed.
Print Assumptions C11_po_quo_roundtrip.

(* the quoted fields of an entry: msgctxt (meaning), msgid, msgid_plural and msgstr / msgstr[0..] come back
   as written, no error flag is raised, and the scanner stands on the blank line after the entry *)
Theorem C11_po_fields_roundtrip : forall is_print m tail e,
  fields_bytes m -> blank_next tail ->
  po_read_fields (scan_of (po_write_fields is_print m ++ tail) e) =
  Ok ({| pf_ctxt := pf_ctxt m; pf_id := pf_id m; pf_id_plural := pf_id_plural m; pf_str := norm_str m |}, scan_of tail e).
Proof. exact po_fields_roundtrip. Qed.
Print Assumptions C11_po_fields_roundtrip.

(* a msgid with quotes, a backslash, a newline (the {\n} command), a tab and a byte that is not UTF-8 *)
Definition ex_po_id : bstr := b "say " ++ [34] ++ b "hi" ++ [34; 32; 92; 10] ++ b "to {NAME}" ++ [9; 255].
Definition ex_po_fields : po_fields :=
  {| pf_ctxt := b "verb"; pf_id := ex_po_id; pf_id_plural := b "{N} times"; pf_str := [ex_po_id; []; b "x"] |}.
Example ex_po_lines :
  po_quo (fun _ => true) p_msgid ex_po_id =
  [b "msgid " ++ [34; 34];
   [34] ++ b "say " ++ [92; 34] ++ b "hi" ++ [92; 34; 32; 92; 92; 92; 110; 34];
   [34] ++ b "to {NAME}" ++ [92; 116; 92; 120; 102; 102; 34]].
Proof. vm_compute. reflexivity. Qed.
Example ex_po_fields_ok : fields_bytes ex_po_fields /\ blank_next [[]; b "#. next entry"].
Proof. vm_compute. repeat split; repeat constructor. Qed.
Example ex_po_roundtrip :
  po_read_fields (scan_of (po_write_fields (fun _ => false) ex_po_fields ++ [[]; b "#. next entry"]) false) =
  Ok (ex_po_fields, scan_of [[]; b "#. next entry"] false).
Proof. vm_compute. reflexivity. Qed.

(* ------------------------------------------------------------------ *)
(* the pinned code (before the repairs) violates the property           *)
(* ------------------------------------------------------------------ *)

(* M3: raw text {lb}X{rb}: accepted by the pinned Validate, yet the msgid is not
   read back as the message; the repaired Validate refuses it *)
Definition ex_lookalike : list node := [NRawText 2 (b "{"); NRawText 3 (b "X"); NRawText 4 (b "}")].
Lemma validate_pinned_refuted :
  exists body, validate_pinned body = Ok tt /\ parts (write_body body) <> merge_texts (body_parts body) /\ validate body <> Ok tt.
Proof. exists ex_lookalike. repeat split; vm_compute; discriminate. Qed.

(* ... and with the identity catalogue the message fails to render, for every walker *)
Lemma identity_lookalike_refuted : forall w st,
  fst (eval_msg plural0 [(5, new_message [] [write_body ex_lookalike])] w 0 5 ex_lookalike st) = Err e_placeholder.
Proof. intros w st. reflexivity. Qed.

(* M4: the pinned extractor crashes on an empty message; the repaired one skips it *)
Lemma extract_empty_refuted :
  extract_msg_pinned 5 [] [] [] = Crash e_index_range /\ extract_msg 5 [] [] [] = Ok None.
Proof. split; reflexivity. Qed.

(* an untranslated entry: the pinned newBundle keeps it as a translation to
   nothing; the repaired one leaves the message to its source text *)
Lemma untranslated_refuted :
  (exists bd, new_bundle_pinned [{| po_id := 5; po_var := []; po_strs := [[]] |}] = Ok bd /\ bundle_message bd 5 = Some (CSimple [])) /\
  (exists bd, new_bundle [{| po_id := 5; po_var := []; po_strs := [[]] |}] = Ok bd /\ bundle_message bd 5 = None).
Proof. split; eexists; split; reflexivity. Qed.

(* ------------------------------------------------------------------ *)
(* the PO file as bytes: lines, comment lines, the extractor's entry     *)
(* ------------------------------------------------------------------ *)

(* bufio.ScanLines inverts "every line followed by \n" on lines without a newline inside, up to the one
   carriage return it drops at the end of a line; whatever follows is scanned on its own *)
Theorem C11_po_scan_join_app : forall ls rest, Forall nl_free ls ->
  scan_lines [] (join_lines ls ++ rest) = map drop_cr ls ++ scan_lines [] rest.
Proof. exact scan_lines_join_app. Qed.
Print Assumptions C11_po_scan_join_app.

Theorem C11_po_scan_join_lines : forall ls, Forall (fun l => nl_free l /\ drop_cr l = l) ls ->
  scan_lines [] (join_lines ls) = ls.
Proof. exact scan_lines_join_lines. Qed.
Print Assumptions C11_po_scan_join_lines.

(* every line Message.WriteTo writes for msgctxt / msgid / msgid_plural / msgstr[i] is such a line, for every
   value (strconv.Quote leaves no newline, the line ends with the closing quote): the bytes of the quoted
   fields read as lines are the lines written *)
Theorem C11_po_fields_bytes_lines : forall is_print m,
  scan_lines [] (join_lines (po_write_fields is_print m)) = po_write_fields is_print m.
Proof. exact fields_bytes_lines. Qed.
Print Assumptions C11_po_fields_bytes_lines.

(* THE ENTRY xgettext-soy WRITES (after repair a5cfda0: one "#. " line per line of the description), for
   EVERY description -- newlines, carriage returns, '#', quotes, anything --, id, plural variable (an
   identifier: non-empty, no white space) and quoted fields: Comment.WriteTo + Message.WriteTo + the empty
   line of File.WriteTo, as BYTES, read by bufio.ScanLines and the message literal of po.Parse, gives the
   references "id=<id>" (and "var=<name>"), the description's lines (trimmed), and msgctxt / msgid /
   msgid_plural / msgstr as written; no error is flagged and the scanner stands on the empty line *)
Theorem C11_po_extract_entry_roundtrip : forall is_print desc id pv f rest e,
  var_ok pv -> fields_bytes f ->
  pe_read_message
    (scan_of (scan_lines [] (join_lines (pe_write_message is_print (pe_extract_entry desc id pv f)) ++ 10 :: rest)) e)
  = Ok ({| pm_comment := {| pc_translator := []; pc_extracted := map (fun d => trim_space (drop_cr d)) (pe_split_nl [] desc);
                            pc_refs := refs_of id pv; pc_flags := [];
                            pc_prev_ctxt := []; pc_prev_id := []; pc_prev_id_plural := [] |};
           pm_fields := {| pf_ctxt := pf_ctxt f; pf_id := pf_id f; pf_id_plural := pf_id_plural f; pf_str := norm_str f |} |},
        scan_of ([] :: scan_lines [] rest) e).
Proof. exact extract_entry_roundtrip. Qed.
Print Assumptions C11_po_extract_entry_roundtrip.

(* ... and pomsg.newBundle's loop over those references finds that id and that plural variable *)
Theorem C11_po_refs_id_var : forall id pv, pe_refs_id_var (refs_of id pv) None None = (Some (dec_of_N id), pv).
Proof. exact refs_id_var. Qed.
Print Assumptions C11_po_refs_id_var.

(* THE WHOLE FILE: File.WriteTo of the extractor's entries for any list of messages (description, id, plural
   variable, quoted fields), as bytes, through bufio.ScanLines and the loop of po.Parse (nextmsg skipping the empty
   lines, the message literal per entry): every entry comes back, in order, with its references and its quoted
   fields, and no error is flagged.  (What Parse then does with a first entry whose msgid is empty -- the header,
   textproto, Plural-Forms -- is Model/PoHeader.v, C11_po_read_mime_header ff. below; the extractor writes no header
   and no empty msgid.) *)
Theorem C11_po_parse_extracted_file : forall is_print (es : list xentry), Forall xentry_ok es ->
  pe_parse (pe_write_file is_print (map xentry_msg es)) = Ok (map xentry_read es).
Proof. exact parse_extracted_file. Qed.
Print Assumptions C11_po_parse_extracted_file.

(* FROM THE BYTES OF THE CATALOGUE TO THE BUNDLE: po.Parse followed by the loop of pomsg.newBundle (references read
   with strings.HasPrefix and strconv.ParseUint, id 0 refused, untranslated entries skipped, the later of two entries
   with one id wins) on the file File.WriteTo writes for the extractor's entries -- any descriptions, ids below 2^64,
   any msgstr filled in -- is [new_bundle] on the (id, plural variable, msgstr) triples: the abstract catalogue of
   Model/MsgParts.v, over which every rendering theorem above is stated (bundle_message bd id = Some (new_message ..)) *)
Theorem C11_po_load_extracted_file : forall is_print (es : list xentry), Forall xentry_ok es -> Forall xentry_id64 es ->
  pb_load (pe_write_file is_print (map xentry_msg es)) = new_bundle (map xentry_po es).
Proof. exact load_extracted_file. Qed.
Print Assumptions C11_po_load_extracted_file.

(* strconv.ParseUint reads back the %d of a uint64 *)
Theorem C11_po_parse_uint_dec : forall id, id < 18446744073709551616 -> pb_parse_uint (dec_of_N id) = Some id.
Proof. exact parse_uint_dec. Qed.
Print Assumptions C11_po_parse_uint_dec.

(* THE HEADER ENTRY AND THE PLURAL RULE (Model/PoHeader.v: net/textproto's ReadMIMEHeader, the tail of po.Parse,
   po/plural.go, the head of pomsg.newBundle -- hand model of library code, tied on every run by c11_po_hparse /
   c11_po_hload / c11_po_hmime / c11_po_hwrite).

   textproto.ReadMIMEHeader on the msgstr File.WriteTo builds for a header -- "key: value\n" per key, for canonical
   keys (RFC 7230 token bytes, first letter and letters after '-' upper case, the rest lower case) and values of valid
   header bytes without a blank at either end -- gives the keys and values back, in order *)
Theorem C11_po_read_mime_header : forall h, poh_hdr_ok h -> poh_read_mime_header (poh_header_text h) = Ok h.
Proof. exact read_mime_header_text. Qed.
Print Assumptions C11_po_read_mime_header.

(* the loop of po.Parse on the bytes File.WriteTo writes for such a header and the extractor's entries (any
   descriptions, any msgstr): the header entry comes back first, as a message with an empty msgid and the header text
   as its one msgstr, then every entry *)
Theorem C11_po_parse_header_file : forall is_print h (es : list xentry), h <> [] -> poh_hdr_ok h -> Forall xentry_ok es ->
  pe_parse (poh_write_file is_print h (map xentry_msg es)) = Ok (poh_header_msg h :: map xentry_read es).
Proof. exact parse_header_file. Qed.
Print Assumptions C11_po_parse_header_file.

(* THE WHOLE CATALOGUE, HEADER INCLUDED -> pomsg's bundle AND ITS PLURAL RULE.  po.Parse (its loop, ReadMIMEHeader on
   the header entry, which is taken out of the messages, the Plural-Forms / Language lookup) followed by
   pomsg.newBundle under ANY locale name: the outcome is decided by the header alone ([poh_pluralize h]: the selector
   its Plural-Forms names -- an unknown value is an error --, else the rule of its Language), then by the locale's name
   ([poh_choose]), and the bundle is [new_bundle] on the (id, plural variable, msgstr) triples of the entries -- the
   abstract catalogue of the rendering theorems; the second component is the index of the selector that
   Bundle.PluralCase applies ([poh_select]; [poh_plural_index c] is the [plural_index] of those theorems) *)
Theorem C11_po_load_header_file : forall is_print (h : poh_header) (es : list xentry) (locale : bstr),
  h <> [] -> poh_hdr_ok h -> Forall xentry_ok es -> Forall xentry_id64 es ->
  poh_load locale (poh_write_file is_print h (map xentry_msg es))
  = (sel <- poh_pluralize h ;;
     match poh_choose sel locale with
     | None => Err poh_e_forms
     | Some c => bd <- new_bundle (map xentry_po es) ;; Ok (bd, c)
     end).
Proof. exact load_header_file. Qed.
Print Assumptions C11_po_load_header_file.

(* the header decides: a Plural-Forms value the library knows (spaces do not matter) gives that rule under every
   locale name, an unknown one refuses the catalogue under every locale name *)
Theorem C11_po_header_decides : forall is_print h es locale c,
  h <> [] -> poh_hdr_ok h -> Forall xentry_ok es -> Forall xentry_id64 es ->
  poh_lookup_selector (poh_get poh_k_plural_forms h) = Some c ->
  poh_load locale (poh_write_file is_print h (map xentry_msg es)) = (bd <- new_bundle (map xentry_po es) ;; Ok (bd, c)).
Proof. exact load_header_plural_forms. Qed.
Print Assumptions C11_po_header_decides.

Theorem C11_po_header_unknown_forms : forall is_print h es locale,
  h <> [] -> poh_hdr_ok h -> Forall xentry_ok es -> Forall xentry_id64 es ->
  poh_get poh_k_plural_forms h <> [] -> poh_lookup_selector (poh_get poh_k_plural_forms h) = None ->
  poh_load locale (poh_write_file is_print h (map xentry_msg es)) = Err poh_e_selector.
Proof. exact load_header_unknown_forms. Qed.
Print Assumptions C11_po_header_unknown_forms.

(* no Plural-Forms: the rule of the header's Language, else of the locale's name, else "Plural-Forms must be specified" *)
Theorem C11_po_header_no_forms : forall is_print h es locale,
  h <> [] -> poh_hdr_ok h -> Forall xentry_ok es -> Forall xentry_id64 es ->
  poh_get poh_k_plural_forms h = [] ->
  poh_load locale (poh_write_file is_print h (map xentry_msg es))
  = match poh_choose (poh_selector_for_language (poh_get poh_k_language h)) locale with
    | None => Err poh_e_forms
    | Some c => bd <- new_bundle (map xentry_po es) ;; Ok (bd, c)
    end.
Proof. exact load_header_no_forms. Qed.
Print Assumptions C11_po_header_no_forms.

(* a catalogue without header entry (the first entry has a msgid): the rule of the locale's name *)
Theorem C11_po_load_no_header : forall is_print (es : list xentry) (locale : bstr),
  Forall xentry_ok es -> Forall xentry_id64 es ->
  match es with [] => True | (_, _, _, f) :: _ => pf_id f <> [] end ->
  poh_load locale (pe_write_file is_print (map xentry_msg es))
  = match poh_selector_for_language locale with
    | None => Err poh_e_forms
    | Some c => bd <- new_bundle (map xentry_po es) ;; Ok (bd, c)
    end.
Proof. exact load_no_header. Qed.
Print Assumptions C11_po_load_no_header.

(* THE CHAIN CLOSED for a flat message: from the BYTES of a catalogue -- a header that names a known plural rule, the
   extractor's entries with ids 1 .. 2^64-1 and any msgstr, the LAST translated entry under the message's id ([po_find]:
   what newBundle's map keeps) being a singular entry with msgstr_of tr -- through po.Parse, ReadMIMEHeader, the
   Plural-Forms lookup and pomsg.newBundle under any locale name, to what soyhtml's evalMsg does with the loaded bundle
   and the loaded selector, for EVERY walker: it runs the translation's items (text segments where the translator put
   them, every slot by walking the first placeholder of the message that carries its name) *)
Theorem C11_catalogue_renders_translation : forall is_print (h : poh_header) (es : list xentry) (locale : bstr) (c : N)
    (w : node -> M value) (mp id : N) (body : list node) (tr : list titem) (e : po_entry),
  h <> [] -> poh_hdr_ok h -> Forall xentry_ok es -> Forall xentry_id64 es -> Forall xentry_id_nz es ->
  poh_lookup_selector (poh_get poh_k_plural_forms h) = Some c ->
  id <> 0 -> po_find (map xentry_po es) id None = Some e -> po_var e = [] -> po_strs e = [msgstr_of tr] ->
  forallb flat_node body = true -> items_named body tr -> parts_clean (map item_part tr) ->
  exists bd, poh_load locale (poh_write_file is_print h (map xentry_msg es)) = Ok (bd, c)
    /\ eval_msg (poh_plural_index c) bd w mp id body = run_items w (map (resolve body) tr).
Proof. exact catalogue_renders_translation. Qed.
Print Assumptions C11_catalogue_renders_translation.

(* every selector answers below the number of forms its Plural-Forms declares, for every Go int (negative ones too) *)
Theorem C11_po_select_in_range : forall code n, (0 <= poh_select code n < poh_nplurals code)%Z.
Proof. exact select_in_range. Qed.
Print Assumptions C11_po_select_in_range.

(* non-vacuity: a header as Poedit writes it (three keys, Russian rule), loaded under the name "en": the Russian
   selector, index 7, which answers 0 1 2 for 21, 22, 25 and 2 for 11 *)
Definition ex_header : poh_header :=
  [(b "Content-Type", b "text/plain; charset=UTF-8"); (b "Language", b "ru");
   (b "Plural-Forms", b "nplurals=3; plural=(n%10==1 && n%100!=11 ? 0 : n%10>=2 && n%10<=4 && (n%100<10 || n%100>=20) ? 1 : 2);")].
Example ex_po_header :
  ex_header <> [] /\ poh_hdr_ok ex_header
  /\ poh_lookup_selector (poh_get poh_k_plural_forms ex_header) = Some 7
  /\ map (poh_plural_index 7) [1; 21; 22; 25; 11; 111; 0; -1]%Z = [0; 0; 1; 2; 2; 2; 2; 2]%nat
  /\ poh_load (b "en") (poh_write_file (fun _ => true) ex_header []) = Ok ([], 7)
  /\ poh_load (b "xx") (poh_write_file (fun _ => true) [(b "Language", b "pt-BR")] []) = Ok ([], 2)
  /\ poh_load (b "xx") (poh_write_file (fun _ => true) [(b "X-Generator", b "none")] []) = Err poh_e_forms
  /\ poh_load (b "cs_CZ") (poh_write_file (fun _ => true) [(b "X-Generator", b "none")] []) = Ok ([], 8).
Proof.
  split; [discriminate|]. split.
  { repeat constructor; vm_compute; try reflexivity; try discriminate;
      repeat (constructor; [reflexivity|]); try constructor. }
  repeat split; vm_compute; reflexivity.
Qed.

(* non-vacuity of the chain: a catalogue of two entries under one id (the later, translated one wins) for the message
   "A {XXX} B{X}" of ex_call_slots below, with an English header, loaded under the name "zz" *)
Definition ex_cat_entries : list xentry :=
  [(b "first try", 9, None, {| pf_ctxt := []; pf_id := b "A {XXX} B{X}"; pf_id_plural := []; pf_str := [b "old"] |});
   (b "a call and a print", 9, None, {| pf_ctxt := []; pf_id := b "A {XXX} B{X}"; pf_id_plural := []; pf_str := [b "{X}{XXX} -- "] |});
   (b "untranslated", 10, None, {| pf_ctxt := []; pf_id := b "other"; pf_id_plural := []; pf_str := [] |})].
Definition ex_cat_header : poh_header :=
  [(b "Language", b "en"); (b "Plural-Forms", b "nplurals=2; plural=(n != 1);")].
Example ex_catalogue_chain :
  poh_hdr_ok ex_cat_header /\ Forall xentry_ok ex_cat_entries /\ Forall xentry_id64 ex_cat_entries /\ Forall xentry_id_nz ex_cat_entries
  /\ poh_lookup_selector (poh_get poh_k_plural_forms ex_cat_header) = Some 1
  /\ po_find (map xentry_po ex_cat_entries) 9 None = Some {| po_id := 9; po_var := []; po_strs := [b "{X}{XXX} -- "] |}
  /\ (match poh_load (b "zz") (poh_write_file (fun _ => true) ex_cat_header (map xentry_msg ex_cat_entries)) with
      | Ok (bd, c) => (bundle_message bd 9, bundle_message bd 10, c)
      | _ => (None, None, 0)
      end) = (Some (new_message [] [b "{X}{XXX} -- "]), None, 1).
Proof.
  split. { repeat constructor; vm_compute; try reflexivity; try discriminate; repeat (constructor; [reflexivity|]); try constructor. }
  split. { repeat constructor; vm_compute; repeat constructor; lia. }
  split. { repeat constructor; vm_compute; reflexivity. }
  split. { repeat constructor; discriminate. }
  repeat split; vm_compute; reflexivity.
Qed.

(* before the repair (the description written as ONE "#. " value): a description of two lines puts its second
   line inside the entry, and the message Parse reads has no reference and no msgid *)
Theorem C11_po_pinned_entry_refuted :
  exists m s, pe_read_message
      (scan_of (scan_lines [] (join_lines (pe_write_message (fun _ => true) (pe_extract_entry_pinned ex_desc 42 None ex_fields)) ++ [10])) false)
    = Ok (m, s) /\ pc_refs (pm_comment m) = [] /\ pf_id (pm_fields m) = [].
Proof. exact pinned_entry_loses_id. Qed.

(* a plural entry with a description of three lines, one ending in a carriage return *)
Example ex_po_entry :
  let f := {| pf_ctxt := b "verb"; pf_id := b "One {X}"; pf_id_plural := b "{N} things"; pf_str := [] |} in
  var_ok (Some (b "N_1")) /\ fields_bytes f /\
  join_lines (pe_write_message (fun _ => true) (pe_extract_entry (b "first" ++ [13; 10; 10] ++ b "# third") 77 (Some (b "N_1")) f))
  = b "#. first" ++ [13; 10] ++ b "#. " ++ [10] ++ b "#. # third" ++ [10] ++ b "#: id=77 var=N_1" ++ [10]
    ++ b "msgctxt " ++ [34] ++ b "verb" ++ [34; 10] ++ b "msgid " ++ [34] ++ b "One {X}" ++ [34; 10]
    ++ b "msgid_plural " ++ [34] ++ b "{N} things" ++ [34; 10] ++ b "msgstr[0] " ++ [34; 34; 10].
Proof. split; [|split]; [| |vm_compute; reflexivity]; vm_compute; repeat constructor; try discriminate; try lia. Qed.

(* ------------------------------------------------------------------ *)
(* a translated message on the three sides (composition with C04)       *)
(* ------------------------------------------------------------------ *)

(* on code without {msg} and without {call} the walker with a bundle IS the walker: same result, same state *)
Theorem C11_walk_b_is_walk : forall cf plural_index bd fuel n, msgfree n = true ->
  forall st, walk_b cf plural_index bd fuel n st = walk cf fuel n st.
Proof. exact walk_b_is_walk. Qed.
Print Assumptions C11_walk_b_is_walk.

(* ... and on code without {msg} that CALLS templates, when no template of the registry contains a {msg} either
   ([msgfree_c] = no message node in the tree, calls allowed; [reg_msgfree] = every template of the registry is such) *)
Theorem C11_walk_b_is_walk_calls : forall cf, reg_msgfree cf -> forall plural_index bd fuel n, msgfree_c n = true ->
  forall st, walk_b cf plural_index bd fuel n st = walk cf fuel n st.
Proof. exact walk_b_is_walk_calls. Qed.
Print Assumptions C11_walk_b_is_walk_calls.

(* CALL SLOTS, Go side: a flat message with the catalogue entry tr whose slots resolve to message-free code -- prints,
   html tags and {call}s, over a registry without {msg} -- is rendered by soyhtml's evalMsg (walker with the bundle)
   exactly as the PLAIN walker of Model/Interp.v runs the translation's items: text segments where the translation puts
   them, each slot by walking the first placeholder of the message that carries its name (for a {call}: data, params,
   the callee's template, any depth of further calls) -- same result, same state, every fuel.  So every theorem about
   [walk] (C02's call semantics, C03's escaping, C12's writes) speaks about the slots of a translated message.
   The JavaScript side of call slots is not proved: the statement is written out, unproved, after
   C11_three_sided_translation_partial below. *)
Theorem C11_translation_call_slots : forall cf, reg_msgfree cf -> forall plural_index bd fuel mp id body tr,
  forallb flat_node body = true -> items_named body tr -> parts_clean (map item_part tr) ->
  bundle_message bd id = Some (new_message [] [msgstr_of tr]) ->
  slots_msgfree (map (resolve body) tr) ->
  forall st, eval_msg plural_index bd (walk_b cf plural_index bd fuel) mp id body st
             = run_items (walk cf fuel) (map (resolve body) tr) st.
Proof. exact translation_plain_walker. Qed.
Print Assumptions C11_translation_call_slots.

(* non-vacuity: "A {XXX} B{X}" where XXX is {call ns.greet data="all"/} and ns.greet is "Hi {$x}!", translated to
   "{X}{XXX} -- " with x = 7: the output is "7Hi 7! -- " *)
Definition exc_greet : template :=
  {| t_name := b "ns.greet";
     t_node := NTemplate 0 (b "ns.greet") (NList 0 [NRawText 1 (b "Hi "); NPrint 2 (NDataRef 2 (b "x") []) []; NRawText 3 (b "!")]) 0 false;
     t_ns_name := b "ns"; t_ns_autoescape := 0; t_params := [(b "x", false)]; t_file := b "f.soy" |}.
Definition exc_cf : cfg :=
  {| c_reg := {| r_templates := [exc_greet]; r_sources := []; r_files := [] |}; c_ij := None; c_oblig := []; c_msgs := None |}.
Definition exc_call : node := NCall 2 (b "ns.greet") true None [].
Definition exc_px : node := NPrint 4 (NDataRef 4 (b "x") []) [].
Definition exc_body : list node :=
  [NRawText 1 (b "A "); NMsgPlaceholder 2 (b "XXX") exc_call; NRawText 3 (b " B"); NMsgPlaceholder 4 (b "X") exc_px].
Definition exc_tr : list titem := [TPh 4 (b "X") exc_px; TPh 2 (b "XXX") exc_call; TText (b " -- ")].
Definition exc_bd : bundle := [(9, new_message [] [msgstr_of exc_tr])].
Definition exc_st : mstate := init_state (sc_enter (new_scope 1 [(b "x", VInt 7)])) 0 (b "ns.main") None None 100.
Example ex_call_slots :
  reg_msgfree exc_cf /\ forallb flat_node exc_body = true /\ msgstr_of exc_tr = b "{X}{XXX} -- "
  /\ bundle_message exc_bd 9 = Some (new_message [] [msgstr_of exc_tr])
  /\ slots_msgfree (map (resolve exc_body) exc_tr)
  /\ items_named exc_body exc_tr /\ parts_clean (map item_part exc_tr)
  /\ (let '(r, st) := eval_msg plural_neq1 exc_bd (walk_b exc_cf plural_neq1 exc_bd 10) 0 9 exc_body exc_st in
      (r, concat_b (rev (out st)))) = (Ok tt, b "7Hi 7! -- ").
Proof.
  split; [intros callee [<-|[]]; reflexivity|]. split; [reflexivity|]. split; [vm_compute; reflexivity|].
  split; [reflexivity|]. split; [repeat constructor|].
  split.
  { intros p n bd H. cbn in H. destruct H as [H|[H|[H|[]]]]; try discriminate; injection H as <- <- <-; cbn; eauto 8. }
  split; [vm_compute; repeat split; discriminate|]. vm_compute. reflexivity.
Qed.

(* A flat message with the catalogue entry tr whose slots all resolve to core prints ({print e|ds} over C04's
   expression subset) or html tags of the message ([ss] = the items as statements of C04's subset: SRaw t for a
   text segment and for a tag, SPrint e ds for a print: [item_stmt]), from ANY three states related by C04's [sim] (the renderer's state, the JavaScript
   environment, the generator's state; old = the buffer variable so far), when the subset semantics gives the
   items the text [text] (stmts_text: the translation's text segments and the printed, escaped values of the
   slots' placeholders, in the TRANSLATION's order):
   (Go)  soyhtml's evalMsg with the bundle writes exactly text;
   (JS)  executing the MiniJS statements of the items in order succeeds (and, by [sim] of the result, leaves
         old ++ text in the buffer variable);
   (Gen) soyjs's visitMsgNode with the same catalogue entry emits exactly the chunks of those statements;
   and the three resulting states are related by [sim] again, so C04's theorems apply to the code that follows.
   ([sim] is relative to a call context: raw text and prints call nothing, so the context without
   calls over the template's data [denv] -- cc_nocalls denv -- is used.)
   PARTIAL with respect to C04/C11's full statement: flat messages, slots that are core prints or html tags (not
   calls, not prints outside C04's expression subset), values whose text has no NUL and no double quote (C04's [cleanb]), no plural. *)
Theorem C11_three_sided_translation_partial : forall cf plural_index bd o lv denv, envok denv -> forall fuel mp id body tr msgs ss,
  forallb flat_node body = true -> items_named body tr -> parts_clean (map item_part tr) ->
  bundle_message bd id = Some (new_message [] [msgstr_of tr]) ->
  o_msgs o = Some msgs -> assoc_n id msgs = Some (jparts_of_cmsg (new_message [] [msgstr_of tr])) ->
  Forall2 item_stmt (map (resolve body) tr) ss ->
  forall st je jst old text,
  c_oblig cf = [] -> Forall (fun s => (sdepth s < fuel)%nat) ss -> Forall (fun s => swf lv s = true) ss ->
  sim cf (cc_nocalls denv) st je jst old -> lvok lv (j_scope jst) ->
  stmts_text cf denv (mode st) (sc_lookup (ctx st)) ss = Some text ->
  exists st' ws je' jst',
    let js := stmts_js (mode st) (j_buf jst) (j_scope jst) (j_n jst) ss in
    eval_msg plural_index bd (walk_b cf plural_index bd fuel) mp id body st = (Ok tt, st') /\ wrote st st' ws /\ concat_b ws = text
    /\ js_exec_seq je js = Ok je'
    /\ visit_msg o (jwalk o fuel) id body jst = Ok (tt, jst')
    /\ j_out jst' = rev (flat_map (sprint (j_indent jst)) js) ++ j_out jst
    /\ sim cf (cc_nocalls denv) st' je' jst' (old ++ text) /\ lvok lv (j_scope jst').
Proof. exact three_sided_translation. Qed.
Print Assumptions C11_three_sided_translation_partial.

(* THE STATEMENT WITH CALL SLOTS (stated, NOT proved; it is over C04's call stage -- C04_gen_correct_partial_call,
   callctx_ok).  With one more constructor of [item_stmt],
       is_call p n name d ps : item_stmt (TPh p n (snode (SCall name d ps))) (SCall name d ps),
   any call context [cc] in place of [cc_nocalls denv], and the fuel measured as C04's call stage measures it:

     forall cf plural_index bd o lv cc, callctx_ok cf o' cc (o' = o without its catalogue, as C04 states its contexts) ->
     forall fuel mp id body tr msgs ss,
       forallb flat_node body = true -> items_named body tr -> parts_clean (map item_part tr) ->
       bundle_message bd id = Some (new_message [] [msgstr_of tr]) ->
       o_msgs o = Some msgs -> assoc_n id msgs = Some (jparts_of_cmsg (new_message [] [msgstr_of tr])) ->
       Forall2 item_stmt (map (resolve body) tr) ss -> reg_msgfree cf ->
       forall st je jst old text,
       c_oblig cf = [] -> Forall (fun s => (cc_fuel cc + sdepth s < fuel)%nat) ss -> Forall (fun s => swf lv s = true) ss ->
       sim cf cc st je jst old -> lvok lv (j_scope jst) ->
       stmts_text' cf cc (mode st) (sc_lookup (ctx st)) ss = Some text ->        (sout over cc_denv cc / cc_callee cc)
       exists st' ws je' jst', [the six conclusions above with cc for cc_nocalls denv].

   What is proved of it: the Go conjunct for every slot kind, calls included, without C04's subset restrictions
   (C11_translation_call_slots: evalMsg with the bundle = the plain walker over the resolved items; reg_msgfree is what
   lets walk_b be replaced by walk under a call), and all three conjuncts for prints and tags (the theorem above).
   Missing: a case of Proofs/MsgThreeSided.v's one-item lemmas (sides_text / sides_tag / sides_print) for SCall from C04's sim_step (the generator's scope and counter
   after a call with content parameters), and stmts_text / stmts_js over a context with calls. *)

(* non-vacuity: "Hello {X}, {A_B}!{BREAK}" translated to "{BREAK}{A_B} -- {X}: hola" with x = 4 in the generated variable x_3
   and a.b = "1<2" in opt_data, autoescape on: the items resolve to core prints, the subset semantics gives the
   text, and the MiniJS statements append it.  ([sim] for this scope, environment and counter is satisfiable:
   Properties/C04.v C04_ginv_nonvacuous, C04_env_rel_nonvacuous.) *)
Definition ex3_px : node := snode (SPrint (CVar (b "x") []) []).
Definition ex3_pa : node := snode (SPrint (CVar (b "a") [CAKey false (b "b")]) []).
Definition ex3_body : list node :=
  [NRawText 1 (b "Hello "); NMsgPlaceholder 2 (b "X") ex3_px; NRawText 3 (b ", "); NMsgPlaceholder 4 (b "A_B") ex3_pa; NRawText 5 (b "!");
   NMsgPlaceholder 6 (b "BREAK") (NMsgHtmlTag 6 (b "<br/>"))].
Definition ex3_tr : list titem :=
  [TPh 6 (b "BREAK") (NMsgHtmlTag 6 (b "<br/>")); TPh 4 (b "A_B") ex3_pa; TText (b " -- "); TPh 2 (b "X") ex3_px; TText (b ": hola")].
Definition ex3_ss : list cstmt :=
  [SRaw (b "<br/>"); SPrint (CVar (b "a") [CAKey false (b "b")]) []; SRaw (b " -- "); SPrint (CVar (b "x") []) []; SRaw (b ": hola")].
Definition ex3_env (k : bstr) : option value :=
  if bstr_eqb k (b "a") then Some (VMap 7 [(b "b", VStr (b "1<2"))]) else if bstr_eqb k (b "x") then Some (VInt 4) else None.
Definition ex3_cf : cfg := {| c_reg := empty_registry; c_ij := None; c_oblig := []; c_msgs := None |}.
Example ex3_three_sided :
  forallb flat_node ex3_body = true /\ msgstr_of ex3_tr = b "{BREAK}{A_B} -- {X}: hola"
  /\ bundle_message [(9, new_message [] [msgstr_of ex3_tr])] 9 = Some (new_message [] [msgstr_of ex3_tr])
  /\ Forall2 item_stmt (map (resolve ex3_body) ex3_tr) ex3_ss
  /\ stmts_text ex3_cf (fun _ => None) 1 ex3_env ex3_ss = Some (b "<br/>1&lt;2 -- 4: hola")
  /\ (match js_exec_seq {| je_vars := [(b "output", JStr (b "ab")); (b "x_3", JNum 4)]; je_data := JObj [(b "a", JObj [(b "b", JStr (b "1<2"))])] |}
                        (stmts_js 1 (b "output") [[(b "x", b "x_3")]] 3 ex3_ss) with
       | Ok je' => assoc_s (b "output") (je_vars je') | _ => None end) = Some (JStr (b "ab<br/>1&lt;2 -- 4: hola")).
Proof.
  split; [reflexivity|]. split; [vm_compute; reflexivity|]. split; [reflexivity|].
  split; [|split; vm_compute; reflexivity].
  vm_compute. repeat constructor.
  - exact (is_print 4 (b "A_B") (CVar (b "a") [CAKey false (b "b")]) []).
  - exact (is_print 2 (b "X") (CVar (b "x") []) []).
Qed.
