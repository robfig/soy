(* C10 — Message ids are a stable function of message content and meaning.
   The proofs are in Proofs/MsgIdProofs.v and MsgIdInj.v; what is proved here
   are the examples and the refutations of the pinned algorithm.  The model
   (Model/MsgId.v) is the tree with the two C10 repairs applied; the algorithm
   as pinned is refuted at the end. *)
From Coq Require Import Permutation.
(* source tie by translation: the lemmas of these files are obligations of this property *)
From Soy Require Import Proofs.SourceTieMsg Proofs.MsgIdSourceTie Proofs.SourceTieMsgLoops Proofs.SourceTieState.
From Soy Require Import Model.Bytes Model.Outcome Generated.Tables Model.MsgId Spec.Msg Proofs.MsgIdProofs Proofs.MsgIdInj.
Open Scope N_scope.

(* ---- the id fits in 63 bits, for every string and meaning ---- *)
Theorem C10_id_lt_2_63 : forall fpstr meaning, calc_id fpstr meaning < 9223372036854775808.
Proof. exact id_lt_2_63. Qed.
Print Assumptions C10_id_lt_2_63.

(* ---- the budgets of the two modelled loops suffice: naming always succeeds ---- *)
Theorem C10_naming_total : forall order body, is_perm order -> exists named, msg_named order body = Ok named.
Proof. exact msg_named_total. Qed.
Print Assumptions C10_naming_total.

(* ---- the id is calcID of (string written by writeFingerprint, meaning) ---- *)
Theorem C10_id_function_of_content : forall order m named,
  msg_named order (m_body m) = Ok named ->
  msg_id order m = Ok (calc_id (write_fp_list false named) (m_meaning m)).
Proof. exact id_function_of_content. Qed.
Print Assumptions C10_id_function_of_content.

(* ... so it ignores the description, *)
Theorem C10_id_ignores_desc : forall order m desc,
  msg_id order {| m_meaning := m_meaning m; m_desc := desc; m_body := m_body m |} = msg_id order m.
Proof. exact id_ignores_desc. Qed.
Print Assumptions C10_id_ignores_desc.

(* ... two messages with the same fingerprinted string and meaning share it, *)
Theorem C10_id_same_fingerprint_string : forall order m m' named named',
  msg_named order (m_body m) = Ok named -> msg_named order (m_body m') = Ok named' ->
  write_fp_list false named = write_fp_list false named' -> m_meaning m = m_meaning m' ->
  msg_id order m = msg_id order m'.
Proof. exact id_same_fingerprint_string. Qed.
Print Assumptions C10_id_same_fingerprint_string.

(* ... and surrounding code and other messages of the file do not enter *)
Theorem C10_id_ignores_context : forall order pre m post,
  process_messages order (pre ++ IMsg m :: post) =
  process_messages order pre ++ msg_id order m :: process_messages order post.
Proof. exact id_ignores_context. Qed.
Print Assumptions C10_id_ignores_context.

Theorem C10_id_ignores_code : forall order file,
  process_messages order file =
  process_messages order (filter (fun it => match it with IMsg _ => true | ICode _ => false end) file).
Proof. exact id_ignores_code. Qed.
Print Assumptions C10_id_ignores_code.

(* ---- names (hence PlaceholderString and id) do not depend on the order in
        which Go iterates over baseNameToRepNodes ---- *)
Theorem C10_names_order_independent : forall order order' body,
  is_perm order -> is_perm order' -> msg_named order body = msg_named order' body.
Proof. exact names_order_independent. Qed.
Print Assumptions C10_names_order_independent.

Theorem C10_id_order_independent : forall order order' m,
  is_perm order -> is_perm order' -> msg_id order m = msg_id order' m.
Proof. exact id_order_independent. Qed.
Print Assumptions C10_id_order_independent.

(* ---- names are the official ones ---- *)
Theorem C10_names_follow_official : forall order body es nm,
  is_perm order -> msg_entries body = Ok es -> msg_names order body = Ok nm ->
  follows_official es (name_of nm).
Proof. exact names_follow_official. Qed.
Print Assumptions C10_names_follow_official.

(* the rule leaves no choice *)
Theorem C10_official_name_unique : forall es base j name name',
  official_name es base j name -> official_name es base j name' -> name = name'.
Proof. exact official_name_unique. Qed.
Print Assumptions C10_official_name_unique.

(* a name is never used for two distinct placeholders *)
Theorem C10_names_distinct : forall order body es nm,
  is_perm order -> msg_entries body = Ok es -> msg_names order body = Ok nm ->
  forall b s b' s', In (b, s) es -> In (b', s') es -> name_of nm b s = name_of nm b' s' -> (b, s) = (b', s').
Proof. exact names_distinct. Qed.
Print Assumptions C10_names_distinct.

(* ---- the braced placeholder string determines text, names, order and plural
        structure.  Guard: raw text contains no brace, names contain neither
        brace nor comma; adjacent raw texts are read as one. ---- *)
Theorem C10_phstring_injective : forall l1 l2,
  parts_ok l1 -> parts_ok l2 -> write_fp_list true l1 = write_fp_list true l2 -> l1 = l2.
Proof. exact phstring_injective. Qed.
Print Assumptions C10_phstring_injective.

Theorem C10_phstring_injective_normalized : forall l1 l2,
  guard_list l1 -> guard_list l2 -> write_fp_list true l1 = write_fp_list true l2 -> normalize l1 = normalize l2.
Proof. exact phstring_injective_normalized. Qed.
Print Assumptions C10_phstring_injective_normalized.

Theorem C10_phstring_determines_message : forall order m1 m2 str,
  is_perm order -> mguard_list (m_body m1) -> mguard_list (m_body m2) ->
  placeholder_string order m1 = Ok str -> placeholder_string order m2 = Ok str ->
  exists n1 n2, msg_named order (m_body m1) = Ok n1 /\ msg_named order (m_body m2) = Ok n2 /\
                normalize n1 = normalize n2.
Proof. exact phstring_determines_message. Qed.
Print Assumptions C10_phstring_determines_message.

(* "The id changes when the content changes" cannot be a theorem: a 63-bit hash
   has collisions, and -- as in official Soy -- the id is computed from the
   string without braces, so a text that spells a placeholder name collides with
   the placeholder.  Stated and refuted; the harness samples it for changes of
   text and meaning. *)
Definition ex_text_name : msg := {| m_meaning := []; m_desc := []; m_body := [MText (b "Hello NAME")] |}.
Definition ex_ph_name : msg := {| m_meaning := []; m_desc := [];
                                  m_body := [MText (b "Hello "); MPh (b "NAME") (b "{$name}")] |}.
Lemma id_determines_content_refuted :
  exists m m', placeholder_string (fun l => l) m <> placeholder_string (fun l => l) m' /\
               msg_id (fun l => l) m = msg_id (fun l => l) m'.
Proof. exists ex_text_name, ex_ph_name. split; [vm_compute; discriminate | vm_compute; reflexivity]. Qed.

(* ---- what the id itself determines.  The strongest true reading of "the id changes
        when text, placeholder structure or meaning changes": calcID re-arranges the two
        32-bit words hash32(str, 0) and hash32(str, 102072) of the fingerprinted string
        bijectively (up to the two designated pairs of the 0/1 adjustment) and then drops
        exactly one bit; so two contents share an id only if hash32 collides. ---- *)

(* the fingerprint is the (adjusted) pair of hashes, nothing lost *)
Theorem C10_fingerprint_is_hash_pair : forall s s', fingerprint s = fingerprint s' <-> fp_pair s = fp_pair s'.
Proof. exact fingerprint_eq_iff_pair. Qed.
Print Assumptions C10_fingerprint_is_hash_pair.

Theorem C10_adjust_inj : forall p q, adjust p = adjust q -> p = q \/ degenerate p = true \/ degenerate q = true.
Proof. exact adjust_inj. Qed.
Print Assumptions C10_adjust_inj.

(* calcID as arithmetic: without a meaning the fingerprint minus its top bit, with a meaning
   the fingerprint rotated left by one plus the meaning's fingerprint, minus the top bit *)
Theorem C10_id_no_meaning : forall s, calc_id s [] = fingerprint s mod two63.
Proof. exact calc_id_no_meaning. Qed.
Print Assumptions C10_id_no_meaning.
Theorem C10_id_meaning : forall s m, m <> [] -> calc_id s m = (rot1 (fingerprint s) + fingerprint m) mod two63.
Proof. exact calc_id_meaning. Qed.
Print Assumptions C10_id_meaning.

(* exactly which contents share an id *)
Theorem C10_same_id_no_meaning_iff : forall s s',
  calc_id s [] = calc_id s' [] <-> fingerprint s mod two63 = fingerprint s' mod two63.
Proof. exact same_id_no_meaning_iff. Qed.
Print Assumptions C10_same_id_no_meaning_iff.
Theorem C10_same_id_same_meaning_iff : forall s s' m, m <> [] ->
  (calc_id s m = calc_id s' m <->
   fingerprint s mod two62 = fingerprint s' mod two62 /\ fingerprint s / two63 = fingerprint s' / two63).
Proof. exact same_id_same_meaning_iff. Qed.
Print Assumptions C10_same_id_same_meaning_iff.
(* ... and which meanings *)
Theorem C10_same_id_two_meanings_iff : forall s m m', m <> [] -> m' <> [] ->
  (calc_id s m = calc_id s m' <-> fingerprint m mod two63 = fingerprint m' mod two63).
Proof. exact same_id_two_meanings_iff. Qed.
Print Assumptions C10_same_id_two_meanings_iff.

(* headline: equal ids under one meaning force the two hashes of the two fingerprinted strings to
   agree on 62 of their 64 bits (agree62: low words equal, high words equal modulo 2^30) *)
Theorem C10_same_id_only_by_collision : forall s s' m,
  calc_id s m = calc_id s' m -> agree62 (fp_pair s) (fp_pair s').
Proof. exact same_id_only_by_collision. Qed.
Print Assumptions C10_same_id_only_by_collision.
Theorem C10_id_changes_unless_collision : forall s s' m,
  ~ agree62 (fp_pair s) (fp_pair s') -> calc_id s m <> calc_id s' m.
Proof. exact id_changes_unless_collision. Qed.
Print Assumptions C10_id_changes_unless_collision.
Theorem C10_msg_same_id_only_by_collision : forall order m m' named named',
  msg_named order (m_body m) = Ok named -> msg_named order (m_body m') = Ok named' ->
  m_meaning m = m_meaning m' -> msg_id order m = msg_id order m' ->
  agree62 (fp_pair (write_fp_list false named)) (fp_pair (write_fp_list false named')).
Proof. exact msg_same_id_only_by_collision. Qed.
Print Assumptions C10_msg_same_id_only_by_collision.

(* non-vacuity: the hypothesis of C10_id_changes_unless_collision holds of concrete contents, and the
   one collision exhibited above (id_determines_content_refuted) is a collision of the fingerprinted
   STRINGS ("Hello NAME" both times), not of hash32 *)
Example ex_no_collision : ~ agree62 (fp_pair (b "Archive")) (fp_pair (b "Help")).
Proof. intros [H _]. vm_compute in H. discriminate. Qed.
Example ex_pair_archive : fp_pair (b "Archive") = (fingerprint (b "Archive") / two32, fingerprint (b "Archive") mod two32).
Proof. vm_compute. reflexivity. Qed.
Example ex_same_fp_string :
  (named <- msg_named (fun l => l) (m_body ex_text_name) ;; Ok (write_fp_list false named)) =
  (named <- msg_named (fun l => l) (m_body ex_ph_name) ;; Ok (write_fp_list false named)).
Proof. vm_compute. reflexivity. Qed.
(* the bit that is dropped is the only thing lost: fingerprints differing in it alone give one id *)
Example ex_dropped_bit : forall fp, fp < two63 -> fp mod two63 = (fp + two63) mod two63.
Proof. intros fp H. unfold two63 in *. rewrite N.add_mod, N.mod_same, N.add_0_r, N.mod_mod by discriminate. reflexivity. Qed.

(* ---- source tie by translation, lifted to the model's composite functions
        (Proofs/MsgIdSourceTie.v; notes/gotrans-msgid-needs.md lists what is NOT tied this way) ---- *)
Theorem C10_calc_id_matches_source : forall fpstr meaning,
  Z.of_N (calc_id fpstr meaning) = src_soymsg_calcID_tail hash32_z meaning (src_soymsg_fingerprint hash32_z fpstr).
Proof. exact calc_id_matches_source_full. Qed.
Print Assumptions C10_calc_id_matches_source.
Theorem C10_tag_loop_matches_source : forall s p,
  alnum_prefix s = Some p <-> exists c r, s = p ++ c :: r /\ forallb src_alnum p = true /\ src_alnum c = false.
Proof. exact alnum_prefix_matches_source. Qed.
Print Assumptions C10_tag_loop_matches_source.
(* hash32, tagName and genBasePlaceholderNameFromHtml as WHOLE functions (Proofs/SourceTieMsgLoops.v) *)
Theorem C10_hash32_matches_source : forall s seed,
  st_small (go_len s) -> seed < 4294967296 ->
  src_soymsg_hash32 s 0 (go_len s) (Z.of_N seed) = Some (Z.of_N (hash32 s seed)).
Proof. exact hash32_matches_source. Qed.
Print Assumptions C10_hash32_matches_source.
Theorem C10_tag_name_matches_source : forall text,
  match src_soymsg_tagName (map ascii_lower) text with
  | Some r => tag_name text = Ok r
  | None => tag_name text = Crash s_no_tag_name
  end.
Proof. exact tag_name_matches_source. Qed.
Print Assumptions C10_tag_name_matches_source.
Theorem C10_base_from_html_matches_source : forall text,
  match src_soymsg_genBasePlaceholderNameFromHtml (map ascii_lower) to_upper_underscore text with
  | Some r => base_from_html text = Ok r
  | None => base_from_html text = Crash s_no_tag_name
  end.
Proof. exact base_from_html_matches_source. Qed.
Print Assumptions C10_base_from_html_matches_source.

(* ---- the model reproduces the ids of the official compiler that the existing
        tests contain (soymsg/soymsg_test.go, soymsg/pomsg/testdata) ---- *)
Example ex_archive_noun : calc_id (b "Archive") (b "noun") = 7224011416745566687.
Proof. vm_compute. reflexivity. Qed.
Example ex_archive_verb : calc_id (b "Archive") (b "verb") = 4826315192146469447.
Proof. vm_compute. reflexivity. Qed.
Example ex_trip : calc_id (b "A trip was taken.") [] = 3329840836245051515.
Proof. vm_compute. reflexivity. Qed.
Example ex_keyword : calc_id (b "Your favorite keyword") [] = 2209690285855487595.
Proof. vm_compute. reflexivity. Qed.
Example ex_help : calc_id (b "Help") [] = 7911416166208830577.
Proof. vm_compute. reflexivity. Qed.

Definition dref (key : string) : ph_node := PhPrint (PeDataRef (b key) []).
Definition observe (meaning : string) (body : list spart) :=
  m <- msg_of_source (b meaning) (b "some description") body ;; o <- msg_observe m ;; Ok (fst o, fst (snd o)).

(* {$name} took a trip to {$destination}. *)
Example ex_name_destination :
  observe "" [SPh (dref "name") (b "{$name}"); SText (b " took a trip to ");
              SPh (dref "destination") (b "{$destination}"); SText (b ".")]
  = Ok (768490705511913603, b "{NAME} took a trip to {DESTINATION}.").
Proof. vm_compute. reflexivity. Qed.

Example ex_pi :
  observe "" [SPh (dref "pi") (b "{$pi}"); SText (b " is nowhere near the value of pi.")]
  = Ok (889614911019327165, b "{PI} is nowhere near the value of pi.").
Proof. vm_compute. reflexivity. Qed.

Example ex_hello_name :
  observe "" [SText (b "Hello "); SPh (dref "name") (b "{$name}"); SText (b "!")]
  = Ok (6936162475751860807, b "Hello {NAME}!").
Proof. vm_compute. reflexivity. Qed.

(* The set of {$setName} is {lb}{call .buildCommaSeparatedList_}...{/call}, ...{rb}. *)
Example ex_set_of :
  observe "" [SText (b "The set of "); SPh (dref "setName") (b "{$setName}"); SText (b " is {");
              SPh PhOther (b "{call .buildCommaSeparatedList_}{param items: $setMembers /}{/call}"); SText (b ", ...}.")]
  = Ok (135956960462609535, b "The set of {SET_NAME} is {{XXX}, ...}.").
Proof. vm_compute. reflexivity. Qed.

(* {plural $eggs}{case 1}You have one egg{default}You have {$eggs} eggs{/plural} *)
Example ex_eggs :
  observe "" [SPlural (PhExpr (PeDataRef (b "eggs") []))
                      (b "{plural $eggs}{case 1}You have one egg{default}You have {$eggs} eggs{/plural}")
                      [(1%Z, [SText (b "You have one egg")])]
                      [SText (b "You have "); SPh (dref "eggs") (b "{$eggs}"); SText (b " eggs")]]
  = Ok (176798647517908084, b "{EGGS_1,plural,=1{You have one egg}other{You have {EGGS_2} eggs}}").
Proof. vm_compute. reflexivity. Qed.

(* placeholder_test.go: HTML tags, equal and distinct placeholders *)
Example ex_links :
  observe "" [SPh (PhHtml (b "<a href=foo>")) (b "<a href=foo>"); SText (b "Click"); SPh (PhHtml (b "</a>")) (b "</a>"); SText (b " ");
              SPh (PhHtml (b "<a href=bar>")) (b "<a href=bar>"); SText (b "here"); SPh (PhHtml (b "</a >")) (b "</a >")]
  = Ok (calc_id (b "START_LINK_1ClickEND_LINK_1 START_LINK_2hereEND_LINK_2") [],
        b "{START_LINK_1}Click{END_LINK_1} {START_LINK_2}here{END_LINK_2}").
Proof. vm_compute. reflexivity. Qed.

Example ex_breaks :
  observe "" [SPh (PhHtml (b "<br>")) (b "<br>"); SPh (PhHtml (b "<br/>")) (b "<br/>"); SPh (PhHtml (b "<br/>")) (b "<br/>")]
  = Ok (calc_id (b "START_BREAKBREAKBREAK") [], b "{START_BREAK}{BREAK}{BREAK}").
Proof. vm_compute. reflexivity. Qed.

Example ex_to_upper_underscore :
  map to_upper_underscore [b "booFoo"; b "_booFoo"; b "__BOO__FOO__"; b "boo8Foo"; b "booFoo88"; b "boo88_foo"; b "_boo_8foo"; b "_BOO__8_FOO_"]
  = [b "BOO_FOO"; b "BOO_FOO"; b "BOO_FOO"; b "BOO_8_FOO"; b "BOO_FOO_88"; b "BOO_88_FOO"; b "BOO_8_FOO"; b "BOO_8_FOO"].
Proof. vm_compute. reflexivity. Qed.

(* hypotheses of the theorems are satisfiable *)
Example ex_perm_rev : is_perm (@rev bstr).
Proof. exact is_perm_rev. Qed.
Example ex_parts_ok :
  parts_ok [NmText (b "Hello "); NmPh (b "NAME"); NmText (b "!");
            NmPlural (b "N") [(1%Z, [NmText (b "one")])] [NmPh (b "N_2"); NmText (b " many")]].
Proof.
  vm_compute.
  repeat (first [ exact I | split | constructor
                | (let H := fresh in intros H; repeat (destruct H as [H|H]; try discriminate); discriminate) ]).
Qed.

(* ---- the algorithm as pinned (collision test against the names handed out so
        far; a lone node writes its base name unconditionally) depends on the
        iteration order, and can leave a placeholder without a name ---- *)
Definition ex_collide : list mpart :=
  [MPh (b "X") (b "{$a.x}"); MPh (b "X") (b "{$b.x}"); MPh (b "X_1") (b "{$x_1}")].

Lemma names_order_dependent_refuted :
  exists body order order', is_perm order /\ is_perm order' /\
    msg_named_pinned order body <> msg_named_pinned order' body.
Proof.
  exists ex_collide, (fun l => l), (@rev bstr).
  split; [exact is_perm_id | split; [exact is_perm_rev | vm_compute; discriminate]].
Qed.

Lemma pinned_ids_differ_refuted :
  exists m order order', is_perm order /\ is_perm order' /\ msg_id_pinned order m <> msg_id_pinned order' m.
Proof.
  exists {| m_meaning := []; m_desc := []; m_body := ex_collide |}, (fun l => l), (@rev bstr).
  split; [exact is_perm_id | split; [exact is_perm_rev | vm_compute; discriminate]].
Qed.

(* in insertion order -- the order a deterministic loop over a slice of base
   names would use -- the first placeholder loses its name: iterating
   deterministically is not enough, the collision rule itself has to change *)
Lemma pinned_insertion_order_loses_name :
  msg_named_pinned (fun l => l) ex_collide = Ok [NmPh []; NmPh (b "X_2"); NmPh (b "X_1")].
Proof. vm_compute. reflexivity. Qed.

(* the repaired algorithm on the same message: the official names *)
Example repaired_collide :
  msg_named (fun l => l) ex_collide = Ok [NmPh (b "X_2"); NmPh (b "X_3"); NmPh (b "X_1")]
  /\ msg_named (@rev bstr) ex_collide = Ok [NmPh (b "X_2"); NmPh (b "X_3"); NmPh (b "X_1")].
Proof. split; vm_compute; reflexivity. Qed.
