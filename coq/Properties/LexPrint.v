(* String level of C17 / C01: the expression-mode scanner on the text the printer writes.

   For every expression e that is well-formed (Spec/ExprSyntax.v wf_expr) and lexically well-formed
   (Proofs/LexPrintMain.v lex_ok: identifiers are ASCII words that are not keywords, access keys do not
   start with a digit, string literals and printed map keys are a quote, valid UTF-8 runes with the quote
   only after a backslash, a quote; float literals have the shape -?D+(.D+)?(e[+-]?D+)? with a fraction or
   an exponent), if the printer model writes txt = print_node e, then the scanner model of parse/lexer.go,
   run as lexExpr on txt, returns normally the items of tokens_of e -- same types, same texts, in order
   (positions aside: tokens_of carries node positions) -- followed by the error item lexExpr sends at the
   end of an expression.  Composed with C17_parse_print_roundtrip (tokens -> tree) this is
   text -> tokens -> the same tree.

   Covered item kinds: all the printer emits -- null true false, integers, floats, strings, identifiers
   and dotted names, $x .x .N ?.x ?.N [ ?[ ] ( ) , : ? ?: | and every operator, including the
   lastEmit-based decision between unary and binary minus and the negative number literal.
   lex_ok is a hypothesis (decidable per literal/identifier), not derived from wf_expr: trees built
   from non-ASCII identifiers are outside the statement. *)
From Soy Require Import Model.Bytes Model.Outcome Model.Ast Model.Token Model.AstPrint Generated.Tables Model.Lexer Spec.ExprSyntax
  Proofs.LexTokens Proofs.LexPrintMain Proofs.LexPrintTop.
Open Scope Z_scope.

Theorem lex_expr_print : forall (uni_letter uni_digit : Z -> bool),
  (forall c, (c < 128)%N -> uni_letter (Z.of_N c) = ((65 <=? c) && (c <=? 90) || (97 <=? c) && (c <=? 122))%N) ->
  (forall c, (c < 128)%N -> uni_digit (Z.of_N c) = digit_b c) ->
  uni_letter (-1) = false -> uni_digit (-1) = false ->
  forall e txt, wf_expr e -> lex_ok e -> print_node e = Some txt ->
  exists ts err, lex_items uni_letter uni_digit (lex_budget txt) true txt = Ok (ts ++ [err]) /\
                 map tv ts = toks e /\ t_typ err = itemError.
Proof. exact LexPrintTop.lex_expr_print. Qed.
Print Assumptions lex_expr_print.

(* with the unicode tables regenerated from the toolchain *)
Theorem lex_expr_print_tbl : forall e txt, wf_expr e -> lex_ok e -> print_node e = Some txt ->
  exists ts err, lex_items is_letter_tbl is_digit_tbl (lex_budget txt) true txt = Ok (ts ++ [err]) /\
                 map tv ts = toks e /\ t_typ err = itemError.
Proof. exact LexPrintTop.lex_expr_print_tbl. Qed.
Print Assumptions lex_expr_print_tbl.

(* non-vacuity: on a sample tree (data reference with the three kinds of access, negation, function call,
   string, list, bool, null) the scanner run by computation on the printed text gives the tree's tokens *)
Definition ex_tree : node :=
  NBin OSub 0 (NNeg 0 (NDataRef 0 (b "a") [NAccKey 0 false (b "b"); NAccIndex 0 true 3; NAccExpr 0 false (NInt 0 (-5))]))
             (NFunc 0 (b "f") [NString 0 (b "'x\'y'") (b "x'y"); NListLit 0 [NBool 0 true; NNull 0]]).

Example ex_tree_lexes :
  match print_node ex_tree with
  | Some txt =>
      match lex_items is_letter_tbl is_digit_tbl (lex_budget txt) true txt with
      | Ok ts => map tv (removelast ts) = toks ex_tree
      | _ => False
      end
  | None => False
  end.
Proof. vm_compute. reflexivity. Qed.
