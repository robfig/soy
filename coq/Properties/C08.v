(* C08 -- rendering is pure.

   "Rendering never modifies the data map, injected data or message bundle it is
   given, and never modifies the compiled bundle, so the same template rendered
   with the same data yields byte-identical output no matter which renders, of
   this or other templates, succeeded or failed before it.  This holds for every
   configuration of the user-extensible registries, including obligatory print
   directives."

   Model: [render] of Model/Interp.v (the walker AFTER the repair of defect I5 of DESIGN.md's ledger,
   /repo 25f4246 = notes/applied/C08-directive-list-local.diff) and the history machine of
   Model/History.v, which threads what renders share: the registry with every
   PrintNode's directive list ([dirs_after_print], [map_prints]) and the
   caller's data / injected-data maps by identity (a map written through a
   shared frame is clobbered by an arbitrary function).  Quantified: every
   registry, heap, obligatory-directive list, message bundle, execution-count
   and clobber function, every history of requests (any templates, data, ij,
   fuel, writer faults).  The user-extensible registries: the second half of
   the file states the same theorems for the walker of Model/InterpExt.v, in
   which soyhtml.Funcs and soyhtml.PrintDirectives hold, besides the library's
   entries, ARBITRARY installed functions and directives (a Section variable:
   any Gallina function of the argument values -- the contract "returns a
   value, may read its arguments").  The message bundle is read-only to a
   render: read off the events extracted from exec.go ([bundle_read_only]).
   JavaScript generation is not a subject of this file: that the generator of
   Model/JsGen.v mutates only its own record is [C09_jsgen_no_shared_writes] and
   [C09_jsgen_traced_is_model] of Properties/C09.v. *)
From Soy Require Import Model.Bytes Model.Num Model.Values Model.Outcome Model.Ast
  Model.Interp Model.InterpExt Model.History Spec.Purity Proofs.InterpLogic Proofs.PurityProofs
  Proofs.InterpExtProofs Proofs.WalkTie.
From Soy Require Import Generated.Tables.
Open Scope N_scope.

(* every [set] of a render -- succeeding or failing, whatever the writer does -- lands on a frame
   the render allocated itself: nothing is ever written through the caller's data map *)
Theorem no_shared_writes :
  forall cf fuel name id data cl bl fid,
    rr_shared_writes (render cf fuel name id data cl bl fid) = [].
Proof. exact render_no_shared_writes. Qed.
Print Assumptions no_shared_writes.

(* the invariant behind it, for every node, fuel and state of the walker *)
Theorem walker_no_shared_writes :
  forall cf fuel n st r st',
    shared_writes st = [] /\ top_fresh (ctx st) ->
    walk cf fuel n st = (r, st') -> shared_writes st' = [].
Proof. exact walk_no_shared_writes. Qed.
Print Assumptions walker_no_shared_writes.

(* call parameters (set by [sc_set] on the callee's scope, which [shared_writes] does not record) land on the
   frame evalCall has just allocated:
   exec.go:479-494, the capacity-capped slice of alldata and the extra frame *)
Theorem call_params_on_fresh_frame :
  forall w alldata dat ps st cd st1 cd' st2,
    call_data w alldata dat st = (Ok cd, st1) ->
    call_params w ps cd st1 = (Ok cd', st2) ->
    top_fresh cd /\ top_fresh cd'.
Proof.
  intros w alldata dat ps st cd st1 cd' st2 H1 H2.
  pose proof (call_data_top_fresh _ _ _ _ _ _ H1) as Hc. split; [apply Hc|].
  apply (call_params_top_fresh _ _ _ _ _ _ H2 Hc).
Qed.
Print Assumptions call_params_on_fresh_frame.

(* the repaired evalPrint leaves the PrintNode's directive list as it was, whatever is obligatory *)
Theorem dirs_after_print_identity :
  forall oblig p dirs, dirs_after_print Repaired oblig p dirs = dirs.
Proof. exact dirs_after_print_repaired. Qed.

(* hence one render leaves registry, data and injected data exactly as it found them *)
Theorem exec_preserves_shared : forall wd, w_variant wd = Repaired -> preserves_shared wd.
Proof. intros wd Hv sh rq. apply shared_preserved. exact Hv. Qed.
Print Assumptions exec_preserves_shared.

(* and the result of a render (outcome, every Write call, error position) is the same after any
   history as alone *)
Theorem history_independent : forall wd, w_variant wd = Repaired -> history_independent_at wd.
Proof.
  intros wd Hv sh h rq d. rewrite (history_independent_l wd sh h rq Hv). apply last_last.
Qed.
Print Assumptions history_independent.

Theorem history_pointwise_independent :
  forall wd sh h, w_variant wd = Repaired -> fst (run_history wd sh h) = map (render_in wd sh) h.
Proof. intros wd sh h Hv. apply history_pointwise. exact Hv. Qed.
Print Assumptions history_pointwise_independent.

(* the pinned evalPrint (append to the shared node) is what the statement rules out: with an
   obligatory directive the same render gives x!, then x!! (here escapeUri: "a+b", "a%2Bb") *)
Theorem history_independent_pinned_refuted :
  exists wd sh rq, w_variant wd = Pinned /\
    map (fun r => concat_b (rr_writes r)) (fst (run_history wd sh [rq; rq])) = [b "a+b"; b "a%2Bb"] /\
    concat_b (rr_writes (render_in wd sh rq)) = b "a+b".
Proof. exact pinned_history_dependent. Qed.

(* ---- non-vacuity ---- *)
Example ex_repaired_history :
  map (fun r => concat_b (rr_writes r)) (fst (run_history (wit_world Repaired) wit_shared [wit_rq; wit_rq])) = [b "a+b"; b "a+b"].
Proof. exact repaired_witness. Qed.

(* a failing render (dead writer) and a render of a missing template in front change nothing *)
Definition ex_dead : request :=
  {| rq_name := wit_name; rq_data := 7; rq_ij := None; rq_fuel := 10; rq_calls_left := Some O; rq_bytes_left := None; rq_first_id := 100 |}.
Definition ex_missing : request :=
  {| rq_name := b "ns.nope"; rq_data := 7; rq_ij := None; rq_fuel := 10; rq_calls_left := None; rq_bytes_left := None; rq_first_id := 100 |}.
Example ex_failing_history :
  map (fun r => (is_ok (rr_outcome r), concat_b (rr_writes r)))
      (fst (run_history (wit_world Repaired) wit_shared [ex_dead; ex_missing; wit_rq])) =
  [(false, []); (false, []); (true, b "a+b")].
Proof. vm_compute. reflexivity. Qed.

(* ================================================================== *)
(* every configuration of the user-extensible registries              *)
(* ================================================================== *)

Section Installed.
(* what a program installed in soyhtml.Funcs and soyhtml.PrintDirectives: for each name the valid argument
   counts and Apply as an arbitrary function of the argument values (contract: it returns a value or panics; it may
   read its arguments; it writes to nothing a render can reach) *)
Variable ux : user_ext.

Theorem no_shared_writes_installed :
  forall cf fuel name id data cl bl fid,
    rr_shared_writes (render_x cf ux fuel name id data cl bl fid) = [].
Proof. intros. apply render_x_no_shared_writes. Qed.

Theorem walker_no_shared_writes_installed :
  forall cf fuel n st r st',
    shared_writes st = [] /\ top_fresh (ctx st) ->
    walk_x cf ux fuel n st = (r, st') -> shared_writes st' = [].
Proof. intros cf fuel n st r st'. apply walk_x_no_shared_writes. Qed.

Theorem exec_preserves_shared_installed :
  forall wd, w_variant wd = Repaired -> forall sh rq, snd (step_x ux wd sh rq) = sh.
Proof. intros wd Hv sh rq. apply shared_preserved_x. exact Hv. Qed.

Theorem history_independent_installed :
  forall wd, w_variant wd = Repaired ->
  forall sh h rq d, last (fst (run_history_x ux wd sh (h ++ [rq]))) d = render_in_x ux wd sh rq.
Proof. intros wd Hv sh h rq d. rewrite (history_independent_x_l ux wd sh h rq Hv). apply last_last. Qed.

Theorem history_pointwise_independent_installed :
  forall wd sh h, w_variant wd = Repaired -> fst (run_history_x ux wd sh h) = map (render_in_x ux wd sh) h.
Proof. intros wd sh h Hv. apply history_pointwise_x. exact Hv. Qed.
End Installed.
Print Assumptions no_shared_writes_installed.
Print Assumptions exec_preserves_shared_installed.
Print Assumptions history_independent_installed.
Print Assumptions history_pointwise_independent_installed.

(* with nothing installed and no message bundle the extended walker is the walker of the theorems above: on every
   node, fuel and state *)
Theorem nothing_installed_is_the_walker :
  forall cf, c_msgs cf = None -> forall fuel n st, walk_x cf no_ext fuel n st = walk cf fuel n st.
Proof. exact walk_x_no_ext. Qed.
Print Assumptions nothing_installed_is_the_walker.

(* WHICH RUNS the walker of Model/Interp.v (the theorems above, and those of C02 / C06 / C19) covers.  It never reads
   the message bundle: for every configuration its run is the run without one ... *)
Theorem base_walker_ignores_bundle :
  forall cf fuel n st, walk cf fuel n st = walk (cfg_no_msgs cf) fuel n st.
Proof. exact walk_ignores_bundle. Qed.
Print Assumptions base_walker_ignores_bundle.
Theorem base_render_ignores_bundle :
  forall cf fuel name id data cl bl fid,
    render cf fuel name id data cl bl fid = render (cfg_no_msgs cf) fuel name id data cl bl fid.
Proof. exact render_ignores_bundle. Qed.
Print Assumptions base_render_ignores_bundle.
(* ... which is also what the extended walker (evalMsg with the bundle path) does when the bundle translates none of
   the messages (evalMsg's fallback to the source text): Renderer.Execute without WithMessages, or with a bundle that
   has no entry for the ids met *)
Theorem untranslated_bundle_is_the_walker :
  forall cf, untranslated cf -> forall fuel n st, walk_x cf no_ext fuel n st = walk cf fuel n st.
Proof. exact walk_x_untranslated. Qed.
Print Assumptions untranslated_bundle_is_the_walker.
Theorem untranslated_bundle_is_the_render :
  forall cf fuel name id data cl bl fid, untranslated cf ->
    render_x cf no_ext fuel name id data cl bl fid = render cf fuel name id data cl bl fid.
Proof. intros. apply render_x_untranslated. assumption. Qed.
Print Assumptions untranslated_bundle_is_the_render.
(* a run THROUGH a translation is not covered by Model/Interp.v (only by the theorems over walk_x / render_x) *)
Example ex_translated_run_not_covered :
  let cf := {| c_reg := empty_registry; c_ij := None; c_oblig := [];
               c_msgs := Some {| mb_msgs := [(77%N, [NRawText 0%N [118%N]])]; mb_plural := []; mb_plural_default := 0%N |} |} in
  let n := NMsg 10%N 77%N [] [] [NRawText 11%N [120%N]] in
  let st := init_state [] 1%N [] None None 2%N in
  out (snd (walk_x cf no_ext 3 n st)) = [[118%N]] /\ out (snd (walk cf 3 n st)) = [[120%N]].
Proof. exact translated_run_not_covered. Qed.

(* the message bundle a render is given (s.msgs, an interface value of the caller) and the message it returns are
   read-only to the walker: of everything exec.go's walker does -- every call that is not a pure builtin, every
   assignment whose target is not a local variable, extracted from the source on every run -- the only uses of the
   bundle are the getters Message and PluralCase, and the only stores go to the fields of the walker's own state and
   to the argument / item slices it has just allocated *)
Theorem bundle_read_only :
  among bundle_getters (filter is_bundle_call (flat_map evs_calls all_events)) = true /\
  among store_targets (flat_map evs_assigns all_events) = true.
Proof. split; [exact walker_bundle_calls | exact walker_store_targets]. Qed.

(* non-vacuity: an installed function twice($x) under an installed obligatory directive |bang, rendered twice *)
Example ex_installed_history :
  map (fun r => (is_ok (rr_outcome r), concat_b (rr_writes r))) (fst (run_history_x ux_wit ux_world ux_shared [wit_rq; wit_rq]))
  = [(true, b "a&lt;a&lt;!"); (true, b "a&lt;a&lt;!")].
Proof. exact ux_witness. Qed.
