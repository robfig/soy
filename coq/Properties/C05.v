(* C05 -- Parsing any input terminates with a tree or an error.

   Lexer half (the model is Model/Lexer.v, the whole of parse/lexer.go).
   The parser half (parse/parse.go over token lists: parse_file_total, parse_expr_total, parse_linear,
   from Proofs/ParserProofs.v) is stated for every item list satisfying items_wf / eof_last; the facts
   proved about the scanner's items ([scan_ok]: positions inside the input, minimum lengths of
   the data-reference items, EOF or error item last and only last) are the scanner's share of those
   hypotheses.  Both halves are composed on byte strings in soy_file_total_composed /
   soy_expr_total_composed; the float_* theorems say what the parser model makes of a float item.

   Full statement for the scanner, proved below as [lex_total_linear]:
     for EVERY byte string s, in both entry modes (lex for files, lexExpr for expressions, and
     lexExprAt at any offset base >= 0), running the scanner model with the step budget 40 + 40*|s|
     finishes -- the outcome is never Crash (slice/index out of range in the scanner goroutine),
     Diverge (an inner loop spinning at end of input), OutOfFuel or OutOfModel -- with a well-formed
     item list whose last item is EOF or an error item; the number of state-function steps is at most
     40 + 40*|s| and the work (calls of next() + bytes scanned by strings.Index) at most 40*|s| + 24.
   The unicode classes (unicode.IsLetter, unicode.IsDigit) are arbitrary predicates false of eof. *)
(* source tie by translation: the lemmas of these files are obligations of this property *)
From Soy Require Import Proofs.SourceTieLexer Proofs.SourceTieExpr Proofs.SourceTieParser Proofs.SourceTieText Proofs.SourceTieQuote Proofs.SourceTieUnquote.
From Soy Require Import Model.Bytes Model.Outcome Model.Ast Model.Token Model.ExprParser Model.Parser Generated.Tables Model.Lexer Model.ParseBytes Spec.LexSpec
  Proofs.LexerPrim Proofs.LexerProofs Proofs.LexShift Proofs.NumLitProofs Proofs.ParserMeasure Proofs.ParserProofs Proofs.LexParseBridge.
Open Scope Z_scope.

Theorem lex_total_linear : forall (uni_letter uni_digit : Z -> bool),
  uni_letter (-1) = false -> uni_digit (-1) = false ->
  forall (base : Z), 0 <= base -> forall (expr_mode : bool) (s : bstr),
  exists l, lex_run_at uni_letter uni_digit base (lex_budget s) expr_mode s = Ok l /\
            scan_ok (Z.to_N (base + Z.of_nat (length s))) (rev (l_out l)) /\
            l_ticks l <= 40 * Z.of_nat (length s) + 24.
Proof. exact LexerProofs.lex_total_linear. Qed.
Print Assumptions lex_total_linear.

(* whatever budget a run was given: if it returned, its items are well-formed *)
Theorem lex_run_items_ok : forall (uni_letter uni_digit : Z -> bool),
  uni_letter (-1) = false -> uni_digit (-1) = false ->
  forall (base : Z), 0 <= base -> forall (fuel : nat) (expr_mode : bool) (s : bstr) l,
  lex_run_at uni_letter uni_digit base fuel expr_mode s = Ok l ->
  scan_ok (Z.to_N (base + Z.of_nat (length s))) (rev (l_out l)).
Proof. exact LexerProofs.lex_run_items_ok. Qed.
Print Assumptions lex_run_items_ok.

Theorem lex_items_total : forall (uni_letter uni_digit : Z -> bool),
  uni_letter (-1) = false -> uni_digit (-1) = false ->
  forall (expr_mode : bool) (s : bstr),
  exists ts, lex_items uni_letter uni_digit (lex_budget s) expr_mode s = Ok ts /\ scan_ok (N.of_nat (length s)) ts.
Proof. exact LexerProofs.lex_items_total. Qed.
Print Assumptions lex_items_total.

(* every item lies inside the input *)
Theorem lex_items_pos_le : forall (uni_letter uni_digit : Z -> bool),
  uni_letter (-1) = false -> uni_digit (-1) = false ->
  forall (fuel : nat) (expr_mode : bool) (s : bstr) ts,
  lex_items uni_letter uni_digit fuel expr_mode s = Ok ts ->
  Forall (fun t => (t_pos t <= N.of_nat (length s))%N) ts.
Proof. exact LexerProofs.lex_items_pos_le. Qed.
Print Assumptions lex_items_pos_le.

(* the instance the model runner executes (unicode tables of the toolchain), against Spec/LexSpec.v *)
Theorem lex_tbl_total_linear : forall expr_mode, scanner_total_linear (lex_items_tbl expr_mode) 40.
Proof. exact LexerProofs.lex_tbl_total_linear. Qed.
Print Assumptions lex_tbl_total_linear.

(* ---------- parser half (Proofs/ParserProofs.v): every stream of well-formed items ---------- *)

Theorem parse_file_total : forall (inlen : N) (lexq : bstr -> list tok) (unq : bstr -> option bstr),
  lexq_wf lexq -> forall ts fuel, items_wf inlen ts -> (length ts + 2 <= fuel)%nat ->
  is_tree_or_error (po_result (parse_file inlen lexq unq parse_expr expr_fuel fuel ts)).
Proof. exact ParserProofs.parse_file_total. Qed.
Print Assumptions parse_file_total.

Theorem parse_expr_total : forall (inlen : N) ts, items_wf inlen ts -> is_tree_or_error (po_result (soy_expr inlen ts)).
Proof. exact ParserProofs.parse_expr_total. Qed.
Print Assumptions parse_expr_total.

Theorem parse_linear : forall (inlen : N) (lexq : bstr -> list tok) (unq : bstr -> option bstr),
  lexq_wf lexq -> forall ts fuel, items_wf inlen ts -> (length ts + 2 <= fuel)%nat ->
  (recv_of (po_result (parse_file inlen lexq unq parse_expr expr_fuel fuel ts)) <= length ts + 4)%nat
  /\ Forall (fun r => (sc_recv r <= sc_sent r + 4)%nat) (po_scans (parse_file inlen lexq unq parse_expr expr_fuel fuel ts)).
Proof. exact ParserProofs.parse_linear. Qed.
Print Assumptions parse_linear.

(* ---------- both halves: byte string -> items -> tree or error ---------- *)
(* The scanner's items satisfy the parser theorems' hypotheses for EVERY input (the parser model is total
   on float literals, Model/NumLit.v parse_float_round: there is no float-domain hypothesis).  The
   nested scanner of parseQuotedExpr is the scanner model itself in expression mode ([lexq_model]);
   strconv.Unquote is universally quantified. *)

Theorem scan_items_wf : forall lim ts, scan_ok lim ts -> items_wf lim ts.
Proof. exact LexParseBridge.scan_items_wf_all. Qed.
Print Assumptions scan_items_wf.

Theorem scan_eof_last : forall lim ts, scan_ok lim ts -> eof_last ts.
Proof. exact LexParseBridge.scan_eof_last. Qed.
Print Assumptions scan_eof_last.

Theorem nested_scanner_wf : forall (uni_letter uni_digit : Z -> bool),
  uni_letter (-1) = false -> uni_digit (-1) = false -> lexq_wf (lexq_model uni_letter uni_digit).
Proof. exact LexParseBridge.lexq_model_wf. Qed.
Print Assumptions nested_scanner_wf.

(* lexExprAt at any base >= 0 sends the items of lexExpr, each position shifted by the base (a simulation of
   the whole scanner model between the two runs, Proofs/LexShift.v) *)
Theorem lex_expr_at_is_lex_expr_shifted : forall (uni_letter uni_digit : Z -> bool) (base : Z) (fuel : nat) (s : bstr) (ts : list tok),
  0 <= base -> lex_items uni_letter uni_digit fuel true s = Ok ts ->
  lex_items_at uni_letter uni_digit base fuel s = Ok (shift_items base ts).
Proof. exact LexShift.lex_items_at_shift. Qed.
Print Assumptions lex_expr_at_is_lex_expr_shifted.

(* the parser model's conversion of float literals: the exact path (decimals that are exactly float64 values of
   Num.v's window, used by C17's round-trip proofs) is a special case of the correctly rounded conversion
   NumLit.parse_float_round, so newValueNode's float case is that conversion and nothing else *)
Theorem float_exact_path_is_rounding : forall s f, NumLit.parse_float s = Some f -> NumLit.parse_float_round s = NumLit.FRVal f.
Proof. exact NumLitProofs.parse_float_exact_is_rounded. Qed.
Print Assumptions float_exact_path_is_rounding.

(* ... and that conversion is IEEE 754 binary64 rounding of the decimal value of the text (Flocq: round radix2
   (FLT_exp (-1074) 53) ZnearestE -- round to nearest, ties to even, subnormals included), with ErrRange exactly when
   the rounded value reaches 2^1024: for EVERY text on which the conversion does not answer FRSyntax, the text is
   -? D+ (. D+)? (e [+-]? D+)? and the result is the correctly rounded value of digits * 10^(exp - |frac|).
   (A statement about real numbers: Print Assumptions lists the axioms of Coq's Reals.) *)
From Soy Require Proofs.NumLitFlocq.
Theorem float_literal_correctly_rounded : forall s, NumLit.parse_float_round s <> NumLit.FRSyntax ->
  exists l esgn, s = NumLitFlocq.nf_text l esgn /\ NumLit.lit_int l <> [] /\
    NumLitFlocq.nf_digits (NumLit.lit_int l) /\ NumLitFlocq.nf_digits (NumLit.lit_frac l) /\ NumLitFlocq.nf_digits (NumLit.lit_exp l) /\
    (esgn = [] \/ esgn = [43%N] \/ esgn = [45%N]) /\ (NumLit.lit_eneg l = true -> esgn = [45%N]) /\
    NumLitFlocq.nf_res_spec (NumLit.lit_neg l) (NumLitFlocq.nf_lit_abs l) (NumLit.parse_float_round s).
Proof. exact NumLitFlocq.nf_parse_float_correctly_rounded. Qed.
Print Assumptions float_literal_correctly_rounded.

(* the scanner model sends no float item outside that syntax (a run invariant of the whole state machine:
   start = pos on entry to lexInsideTag / lexBeginTag / lexNumber, lexNumber entered at a digit or at '-' digit;
   Proofs/ScanStartInv.v, ScanFloatShape.v): the FRSyntax answer of the conversion is dead for scanner output,
   in file mode, expression mode and at any base (the nested scanner of a quoted attribute expression) *)
From Soy Require Proofs.ScanFloatShape Proofs.ScanFloatParse.
Theorem float_items_of_scanner_syntax : forall uni_letter uni_digit fuel mode s its,
  lex_items uni_letter uni_digit fuel mode s = Ok its ->
  forall t, In t its -> t_typ t = pk_itemFloat ->
  (exists fl, NumLit.split_float (t_val t) = Some fl) /\ NumLit.parse_float_round (t_val t) <> NumLit.FRSyntax.
Proof.
  intros ul ud fuel mode s its H t Hin Ht. split.
  - exact (ScanFloatShape.scan_float_shape_items ul ud fuel mode s its H t Hin Ht).
  - exact (ScanFloatShape.scan_float_not_syntax_items ul ud fuel mode s its H t Hin Ht).
Qed.
Print Assumptions float_items_of_scanner_syntax.

Theorem float_items_of_scanner_syntax_at : forall uni_letter uni_digit base fuel s its,
  lex_items_at uni_letter uni_digit base fuel s = Ok its ->
  forall t, In t its -> t_typ t = pk_itemFloat -> NumLit.parse_float_round (t_val t) <> NumLit.FRSyntax.
Proof. exact ScanFloatShape.scan_float_not_syntax_items_at. Qed.
Print Assumptions float_items_of_scanner_syntax_at.

(* so newValueNode on a float item of the scanner: NFloat of the binary64 nearest to the decimal value of the
   item's text, or the "number" error exactly when that rounding reaches 2^1024 -- nothing else *)
Theorem float_item_value_node : forall (w : N -> pst -> presult node) (lf : nat) (t : tok) (st : pst),
  t_typ t = pk_itemFloat -> ScanFloatParse.sfp_ok t ->
  exists l esgn, t_val t = NumLitFlocq.nf_text l esgn /\ NumLit.lit_int l <> [] /\
    NumLitFlocq.nf_digits (NumLit.lit_int l) /\ NumLitFlocq.nf_digits (NumLit.lit_frac l) /\ NumLitFlocq.nf_digits (NumLit.lit_exp l) /\
    match new_value_node w lf t st with
    | POk n st' => st' = st /\ exists f, n = NFloat (t_pos t) f /\
                   FloatFlocqBase.ff_R f = Raux.cond_Ropp (NumLit.lit_neg l) (NumLitFlocq.nf_round (NumLitFlocq.nf_lit_abs l)) /\
                   Rdefinitions.Rlt (NumLitFlocq.nf_round (NumLitFlocq.nf_lit_abs l)) (Raux.bpow Zaux.radix2 1024)
    | r => r = p_errorf c_number st /\ Rdefinitions.Rle (Raux.bpow Zaux.radix2 1024) (NumLitFlocq.nf_round (NumLitFlocq.nf_lit_abs l))
    end.
Proof. exact ScanFloatParse.sfp_value_node. Qed.
Print Assumptions float_item_value_node.

Theorem soy_file_total_composed : forall (uni_letter uni_digit : Z -> bool),
  uni_letter (-1) = false -> uni_digit (-1) = false ->
  forall (unq : bstr -> option bstr) (s : bstr),
  exists ts, lex_items uni_letter uni_digit (lex_budget s) false s = Ok ts /\
    is_tree_or_error (po_result (soy_file (N.of_nat (length s)) (lexq_model uni_letter uni_digit) unq ts)) /\
    (recv_of (po_result (soy_file (N.of_nat (length s)) (lexq_model uni_letter uni_digit) unq ts)) <= length ts + 4)%nat.
Proof. exact LexParseBridge.soy_file_total_all. Qed.
Print Assumptions soy_file_total_composed.

Theorem soy_expr_total_composed : forall (uni_letter uni_digit : Z -> bool),
  uni_letter (-1) = false -> uni_digit (-1) = false -> forall s : bstr,
  exists ts, lex_items uni_letter uni_digit (lex_budget s) true s = Ok ts /\
    is_tree_or_error (po_result (soy_expr (N.of_nat (length s)) ts)) /\
    (recv_of (po_result (soy_expr (N.of_nat (length s)) ts)) <= length ts + 4)%nat.
Proof. exact LexParseBridge.soy_expr_total_all. Qed.
Print Assumptions soy_expr_total_composed.

(* Non-vacuity.  The hypotheses on the unicode classes hold of the regenerated tables; the tables are
   ascending (the early exit of [in_ranges] is sound); and the model really scans: a template, an
   unclosed {css} tag, a header param cut inside its type and a soydoc cut after "@param " -- the three
   repaired defects -- all end in an item list. *)
Example tables_satisfy_hypotheses : is_letter_tbl (-1) = false /\ is_digit_tbl (-1) = false.
Proof. vm_compute. split; reflexivity. Qed.

Fixpoint ascending (prev : Z) (tbl : list (Z * Z)) : bool :=
  match tbl with
  | [] => true
  | (lo, hi) :: t => (prev <? lo) && (lo <=? hi) && ascending hi t
  end.
Example unicode_tables_ascending : ascending (-1) is_letter_ranges = true /\ ascending (-1) is_digit_ranges = true.
Proof. vm_compute. split; reflexivity. Qed.

Definition typs (o : outcome (list tok * Z)) : list N :=
  match o with Ok (ts, _) => map t_typ ts | _ => [] end.

Example scan_template :
  typs (lex_items_tbl false (b "{template .a}hi {$x|f:1}{/template}")) =
  [itemLeftDelim; itemTemplate; itemDotIdent; itemRightDelim; itemText; itemLeftDelim; itemDollarIdent; itemPipe;
   itemIdent; itemColon; itemInteger; itemRightDelim; itemLeftDelim; itemTemplateEnd; itemRightDelim; itemEOF].
Proof. vm_compute. reflexivity. Qed.

Example scan_expr : typs (lex_items_tbl true (b "1 - -2 * $a?.b")) =
  [itemInteger; itemSub; itemInteger; itemMul; itemDollarIdent; itemQuestionDotIdent; itemError].
Proof. vm_compute. reflexivity. Qed.

Example scan_unclosed_css : typs (lex_items_tbl false (b "{css foo")) = [itemLeftDelim; itemCss; itemError].
Proof. vm_compute. reflexivity. Qed.

Example scan_cut_header_param : typs (lex_items_tbl false (b "{@param x: ")) =
  [itemLeftDelim; itemHeaderParam; itemIdent; itemColon; itemError].
Proof. vm_compute. reflexivity. Qed.

Example scan_cut_soydoc_param : typs (lex_items_tbl false (b "/** @param ")) =
  [itemSoyDocStart; itemSoyDocParam; itemIdent; itemError].
Proof. vm_compute. reflexivity. Qed.

(* float literals outside the exact decimal domain do not stop the parser model: 0.1 (not a dyadic
   rational) and 1e400 (ErrRange) from their bytes *)
Definition res_class (o : outcome (list tok * Z)) : N :=
  match o with
  | Ok (ts, _) => match po_result (soy_expr 5 ts) with POk _ _ => 1%N | PErr _ _ _ => 2%N | PCrash _ => 3%N | PFuel => 4%N end
  | _ => 0%N
  end.
Example parse_inexact_float : res_class (lex_items_tbl true (b "0.1")) = 1%N /\ res_class (lex_items_tbl true (b "1e400")) = 2%N.
Proof. vm_compute. split; reflexivity. Qed.
