(* C16 — print directives encode faithfully.  Every
   statement holds for ALL byte strings (no length bound).  Models:
   Model/Directives.v (insertWordBreaks, changeNewlineToBr, truncate,
   url.QueryEscape), Model/JsEscape.v (template.JSEscapeString, json.Marshal of
   a string), Model/JsonEncode.v (json.Marshal of every Soy value; through the walker:
   Model/InterpJson.v), Model/JsDirectives.v (the helpers of soyutils.js, over UTF-16
   code units); decoders: Spec/Codec.v, Spec/Html.v, Spec/Json.v (RFC 8259), Spec/JsUnits.v. *)
(* source tie by translation: the lemmas of these files are obligations of this property *)
From Soy Require Import Proofs.SourceTieDirectives Proofs.SourceTieWordBreaks.
From Soy Require Import Model.Bytes Generated.Tables Model.Utf8 Model.Num Model.Outcome Model.Values Model.Escape Model.Directives Model.JsEscape
  Model.JsonEncode Spec.Html Spec.Codec Spec.Json Proofs.Utf8Proofs Proofs.CodecProofs Proofs.CodecJsPair Proofs.CodecJsonNum Proofs.CodecJson Proofs.CodecJsonInert
  Model.JsDirectives Spec.JsUnits Proofs.CodecJsUnits Proofs.CodecJsAgree Proofs.CodecJsTie Model.InterpJson Proofs.CodecWalkerJson.
Open Scope N_scope.

(* ---------------- escapeUri ---------------- *)
(* bytes are < 256 (always true of the strings the harness and Go produce) *)
Theorem C16_uri_roundtrip : forall s, Forall (fun c => c < 256) s -> pct_decode (escape_uri s) = Some s.
Proof. exact uri_roundtrip. Qed.
Print Assumptions C16_uri_roundtrip.

(* only A-Z a-z 0-9 - _ . ~ + % *)
Theorem C16_uri_safe_alphabet : forall s, Forall (fun c => c < 256) s -> Forall (fun c => uri_safe_byte c = true) (escape_uri s).
Proof. exact uri_safe_alphabet. Qed.
Print Assumptions C16_uri_safe_alphabet.

Example C16_uri_nonvacuous :
  Forall (fun c => c < 256) (b "a%b > c" ++ [255; 0]) /\ escape_uri (b "a%b > c") = b "a%25b+%3E+c"
  /\ pct_decode (b "a%25b+%3E+c") = Some (b "a%b > c") /\ pct_decode (b "%zz") = None /\ pct_decode (b "%4") = None.
Proof. split; [repeat constructor|vm_compute; repeat split; reflexivity]. Qed.

(* ---------------- truncate ---------------- *)
Theorem C16_truncate_fits : forall s n e, (Z.of_nat (length s) <= n)%Z -> truncate s n e = Ok s.
Proof. exact truncate_fits. Qed.
Print Assumptions C16_truncate_fits.

(* otherwise, when a result is returned: a prefix (plus "..." exactly when
   the ellipsis applies), never longer than the limit, cut where a rune
   starts (and at the last such place not after the limit), valid UTF-8 if
   the input is *)
Theorem C16_truncate_spec : forall s n e out, (n < Z.of_nat (length s))%Z -> truncate s n e = Ok out ->
  exists k c,
    out = take k s ++ (if trunc_ell n e then dots else [])
    /\ (Z.of_nat (length out) <= n)%Z /\ (0 <= n)%Z
    /\ nth_error s k = Some c /\ rune_start c = true
    /\ (Z.of_nat k <= trunc_cut n e)%Z
    /\ (forall i, (k < i <= Z.to_nat (trunc_cut n e))%nat -> exists c', nth_error s i = Some c' /\ is_cont c' = true)
    /\ (utf8_valid s = true -> utf8_valid out = true).
Proof. exact truncate_cut. Qed.
Print Assumptions C16_truncate_spec.

(* the outcome is a result or a (recovered) error, never a crash, a
   divergence or the model's fuel running out ... *)
Theorem C16_truncate_total : forall s n e, (n < Z.of_nat (length s))%Z ->
  (exists out, truncate s n e = Ok out) \/ (exists m, truncate s n e = Err m).
Proof. exact truncate_total. Qed.
Print Assumptions C16_truncate_total.

(* ... and it is an error exactly for a negative limit or when every byte up
   to the cut is a continuation byte (the Go loop indexes str[-1]) *)
Theorem C16_truncate_err_when : forall s n e, (n < Z.of_nat (length s))%Z ->
  ((exists m, truncate s n e = Err m) <->
   ((n < 0)%Z \/ forall i, (i <= Z.to_nat (trunc_cut n e))%nat -> exists c, nth_error s i = Some c /\ is_cont c = true)).
Proof. exact truncate_err_when. Qed.
Print Assumptions C16_truncate_err_when.

Example C16_truncate_nonvacuous :
  truncate (b "Lorem Ipsum") 8 true = Ok (b "Lorem...")
  /\ truncate [97; 240; 159; 152; 128; 98] 3 false = Ok [97]          (* a, U+1F600, b cut inside the rune: backs up *)
  /\ truncate [97; 195; 169; 98; 99; 100; 101] 5 true = Ok [97; 46; 46; 46]
  /\ (exists m, truncate [128; 128; 97; 98] 1 false = Err m)
  /\ (exists m, truncate (b "abc") (-1) false = Err m).
Proof. vm_compute. repeat split; eexists; reflexivity. Qed.

(* ---------------- changeNewlineToBr / insertWordBreaks ---------------- *)
(* nothing but line breaks changes in the escaped text *)
Theorem C16_br_only : forall s, remove_tok br (change_newline_to_br s) = tmpl_html_escape (remove_newlines s).
Proof. exact br_only. Qed.
Print Assumptions C16_br_only.

Theorem C16_br_no_newline : forall s, Forall (fun d => d <> 10 /\ d <> 13) (change_newline_to_br s).
Proof. exact br_no_newline. Qed.
Print Assumptions C16_br_no_newline.

(* nothing but break opportunities changes in the escaped text *)
Theorem C16_wbr_only : forall s n, remove_tok wbr (insert_word_breaks s n) = tmpl_html_escape s.
Proof. exact wbr_only. Qed.
Print Assumptions C16_wbr_only.

(* no <wbr> inside a character reference: the output is a concatenation of
   units, each either <wbr> or the whole escaped image of one input byte, and
   the non-<wbr> units concatenate to the escaped text *)
Theorem C16_wbr_units : forall s n, exists us, Forall iwb_unit us /\ insert_word_breaks s n = concat_b us
  /\ concat_b (filter (fun u => negb (bstr_eqb u wbr)) us) = tmpl_html_escape s.
Proof. exact wbr_units. Qed.
Print Assumptions C16_wbr_units.

Example C16_wbr_nonvacuous :
  insert_word_breaks (b "a<b&cd") 2 = b "a&lt;<wbr>b&amp;<wbr>cd"
  /\ change_newline_to_br ([97; 13; 10; 60; 10; 13]) = b "a<br>&lt;<br><br>"
  /\ remove_tok wbr (b "a&lt;<wbr>b&amp;<wbr>cd") = b "a&lt;b&amp;cd".
Proof. vm_compute. repeat split; reflexivity. Qed.

(* ---------------- escapeJsString ---------------- *)
(* for every predicate standing for unicode.IsPrint that rejects U+2028 and
   U+2029, and both quote characters *)
Theorem C16_jsstr_roundtrip_any_isprint : forall is_print : N -> bool,
  is_print 8232 = false -> is_print 8233 = false ->
  forall q, q = 39 \/ q = 34 ->
  forall s, utf8_valid s = true -> Forall (fun r => r < 65536 \/ is_print r = true) (runes s) ->
  js_read_literal_q q (js_escape is_print s) = Some s.
Proof. exact jsstr_roundtrip_q. Qed.
Print Assumptions C16_jsstr_roundtrip_any_isprint.

(* for Go's unicode.IsPrint (table regenerated from the toolchain) *)
Theorem C16_jsstr_roundtrip : forall s,
  (Forall (fun r => r < 65536 \/ is_print_tbl r = true) (runes s)) -> utf8_valid s = true ->
  js_read_literal (js_escape is_print_tbl s) = Some s.
Proof. exact jsstr_roundtrip. Qed.
Print Assumptions C16_jsstr_roundtrip.

Theorem C16_jsstr_roundtrip_double_quotes : forall s,
  (Forall (fun r => r < 65536 \/ is_print_tbl r = true) (runes s)) -> utf8_valid s = true ->
  js_read_literal_q 34 (js_escape is_print_tbl s) = Some s.
Proof. exact jsstr_roundtrip_dq. Qed.
Print Assumptions C16_jsstr_roundtrip_double_quotes.

(* no line feed, carriage return, < > & = in the escaped text, for every
   byte string and every is_print (a raw quote or U+2028/U+2029 would make
   js_read_literal fail, so their absence is part of the round trip) *)
Theorem C16_jsstr_inert : forall is_print s, Forall js_inert (js_escape is_print s).
Proof. exact js_escape_inert. Qed.
Print Assumptions C16_jsstr_inert.

(* FULL statement (without the guard on astral non-printable runes):
     forall s, utf8_valid s = true -> js_read_literal (js_escape is_print_tbl s) = Some s
   is FALSE of the faithful model, because text/template.JSEscape formats the
   rune with %04X (finding jsstr-astral-nonprint-5hex): *)
Theorem C16_jsstr_astral_refuted :
  exists s, utf8_valid s = true /\ js_escape is_print_tbl s = [92; 117; 70; 48; 48; 48; 48]
            /\ js_read_literal (js_escape is_print_tbl s) = Some [239; 128; 128; 48]
            /\ js_read_literal (js_escape is_print_tbl s) <> Some s.
Proof. exact jsstr_astral_refuted. Qed.
Print Assumptions C16_jsstr_astral_refuted.

(* ---- the escaper soy calls (Model/JsEscape.v js_escape_soy): text/template's, or -- with the repair
   notes/applied/C16-jsstr-astral-surrogate-pair.diff -- internal/jsescape, which writes a
   non-printable rune above U+FFFF as its surrogate pair.  Which one the tree under test calls is
   regenerated from its source (Generated/Tables.v jsstr_pair_html). ---- *)

(* the directive as the tree under test implements it: the guard is needed only while the library is called *)
Theorem C16_jsstr_roundtrip_soy : forall s,
  (jsstr_pair_html = true \/ Forall (fun r => r < 65536 \/ is_print_tbl r = true) (runes s)) -> utf8_valid s = true ->
  js_read_literal (js_escape_soy jsstr_pair_html is_print_tbl s) = Some s.
Proof.
  intros s Hg Hv. apply (jsstr_roundtrip_soy_q jsstr_pair_html is_print_tbl is_print_tbl_ls is_print_tbl_ps 39 (or_introl eq_refl)); [exact Hv|].
  destruct Hg as [Hp|Hg]; [apply Forall_forall; intros; left; exact Hp|].
  eapply Forall_impl; [|exact Hg]. intros r Hr. right. exact Hr.
Qed.
Print Assumptions C16_jsstr_roundtrip_soy.

(* the FULL statement, without the BMP-or-printable guard, for the repaired escaper *)
Theorem C16_jsstr_roundtrip_repaired : forall s, utf8_valid s = true ->
  js_read_literal (js_escape_soy true is_print_tbl s) = Some s.
Proof. exact jsstr_roundtrip_repaired. Qed.
Print Assumptions C16_jsstr_roundtrip_repaired.

Theorem C16_jsstr_roundtrip_repaired_double_quotes : forall s, utf8_valid s = true ->
  js_read_literal_q 34 (js_escape_soy true is_print_tbl s) = Some s.
Proof. exact jsstr_roundtrip_repaired_dq. Qed.
Print Assumptions C16_jsstr_roundtrip_repaired_double_quotes.

Theorem C16_jsstr_soy_inert : forall pair is_print s, Forall js_inert (js_escape_soy pair is_print s).
Proof. exact js_escape_soy_inert. Qed.
Print Assumptions C16_jsstr_soy_inert.

(* with pair = false it IS the library's escaper, so the theorems above about js_escape carry over *)
Theorem C16_jsstr_soy_library : forall is_print s, js_escape_soy false is_print s = js_escape is_print s.
Proof. exact js_escape_soy_false. Qed.
Print Assumptions C16_jsstr_soy_library.

(* the witness of the finding: U+F0000 z  ->  backslash-u DB80 backslash-u DC00 z, which reads back *)
Example C16_jsstr_repaired_nonvacuous :
  js_escape_soy true is_print_tbl [243; 176; 128; 128; 122] = [92; 117; 68; 66; 56; 48; 92; 117; 68; 67; 48; 48; 122]
  /\ js_read_literal [92; 117; 68; 66; 56; 48; 92; 117; 68; 67; 48; 48; 122] = Some [243; 176; 128; 128; 122]
  /\ utf8_valid [243; 176; 128; 128; 122] = true /\ is_print_tbl 983040 = false.
Proof. vm_compute. repeat split; reflexivity. Qed.

(* a, less-than, b, apostrophe, c, quote, backslash, LF, U+00A0, U+00E9, U+2028, U+1F600;
   the escapes xHH, backslash-slash and a surrogate pair are read *)
Example C16_jsstr_nonvacuous :
  let s := [97; 60; 98; 39; 99; 34; 92; 10; 194; 160; 195; 169; 226; 128; 168; 240; 159; 152; 128] in
  utf8_valid s = true /\ forallb (fun r => (r <? 65536) || is_print_tbl r) (runes s) = true
  /\ js_escape is_print_tbl s =
       [97; 92; 117; 48; 48; 51; 67; 98; 92; 39; 99; 92; 34; 92; 92; 92; 117; 48; 48; 48; 65; 92; 117; 48; 48; 65; 48;
        195; 169; 92; 117; 50; 48; 50; 56; 240; 159; 152; 128]
  /\ js_read_literal [92; 120; 52; 49; 92; 47; 240; 159; 152; 128; 92; 117; 68; 56; 51; 68; 92; 117; 68; 69; 48; 48]
       = Some [65; 47; 240; 159; 152; 128; 240; 159; 152; 128]
  /\ js_read_literal (b "it's") = None /\ js_read_literal [97; 10] = None /\ js_read_literal [226; 128; 168] = None.
Proof. vm_compute. repeat split; reflexivity. Qed.

(* ---------------- json (string values) ---------------- *)
Theorem C16_json_string_roundtrip : forall s, utf8_valid s = true -> json_parse_string (json_string s) = Some s.
Proof. exact json_string_roundtrip. Qed.
Print Assumptions C16_json_string_roundtrip.

Theorem C16_json_string_inert : forall s, Forall html_inert (json_string s).
Proof. exact json_string_inert. Qed.
Print Assumptions C16_json_string_inert.

(* a, less-than, b, quote, backslash, slash, BS, LF, 0x01, DEL, U+00A0, U+2029, U+1F600;
   an invalid byte becomes the escape for U+FFFD *)
Example C16_json_nonvacuous :
  let s := [97; 60; 98; 34; 92; 47; 8; 10; 1; 127; 194; 160; 226; 128; 169; 240; 159; 152; 128] in
  utf8_valid s = true
  /\ json_string s = [34; 97; 92; 117; 48; 48; 51; 99; 98; 92; 34; 92; 92; 47; 92; 98; 92; 110; 92; 117; 48; 48; 48; 49;
                      127; 194; 160; 92; 117; 50; 48; 50; 57; 240; 159; 152; 128; 34]
  /\ json_string [255] = [34; 92; 117; 102; 102; 102; 100; 34]
  /\ json_parse_string [34; 92; 117; 100; 56; 51; 100; 92; 117; 100; 101; 48; 48; 92; 47; 34] = Some [240; 159; 152; 128; 47]
  /\ json_parse_string [34; 97] = None /\ json_parse_string [34; 10; 34] = None /\ json_parse_string [34; 97; 34; 98] = None.
Proof. vm_compute. repeat split; reflexivity. Qed.

(* ---------------- json (every value) ---------------- *)
(* json.Marshal of a Soy value (Model/JsonEncode.v: null / bool / int64 / float64 of the exact printing
   domain / string / list / map with sorted keys, at any nesting depth), read by the RFC 8259 reader of
   Spec/Json.v, is the JSON value the Soy value denotes (jv_of_value: undefined and null are null, a
   number is the exact decimal it denotes, collections keep their elements).  json_ok: strings and keys
   are valid UTF-8, floats are normalised, keys strictly increase (the invariants of Model/Values.v), and
   -- only while the tree writes a nil collection as null (Tables.json_nil_null) -- no collection is nil. *)
Theorem C16_json_roundtrip : forall v s, json_ok json_nil_null v -> json_encode json_nil_null v = Ok s ->
  exists j, jv_of_value v = Some j /\ json_parse s = Some j.
Proof. exact (json_roundtrip json_nil_null). Qed.
Print Assumptions C16_json_roundtrip.

(* for both kinds of tree; nn = false (repair notes/applied/C16-json-nil-list.diff) has no nil clause *)
Theorem C16_json_roundtrip_any_tree : forall nn v s, json_ok nn v -> json_encode nn v = Ok s ->
  exists j, jv_of_value v = Some j /\ json_parse s = Some j.
Proof. exact json_roundtrip. Qed.
Print Assumptions C16_json_roundtrip_any_tree.

(* the encoder gives a text for every value without NaN / infinities whose floats are in the exact printing domain *)
Theorem C16_json_encode_total : forall nn v, json_finite v -> exists s, json_encode nn v = Ok s.
Proof. exact json_encode_total. Qed.
Print Assumptions C16_json_encode_total.

(* HTML-safe at any depth: no raw < > & in the text of any value *)
Theorem C16_json_inert : forall nn v s, json_encode nn v = Ok s -> Forall html_inert s.
Proof. exact json_encode_inert. Qed.
Print Assumptions C16_json_inert.

(* numbers: an int64 (indeed any integer) and a float of the exact printing domain read back exactly *)
Theorem C16_json_number_int : forall z rest, stop_num rest -> json_number (dec_of_Z z ++ rest) = Some (num_of_Z z, rest).
Proof. exact json_number_int. Qed.
Print Assumptions C16_json_number_int.

Theorem C16_json_number_float : forall x s rest, fl_norm x -> fl_to_string_dom x = Some s -> stop_num rest ->
  forall j, num_of_fl x = Some j -> json_number (s ++ rest) = Some (j, rest).
Proof. exact json_number_float. Qed.
Print Assumptions C16_json_number_float.

(* {"a<":[-12,2.5,null,true,"x",[]],"b":{}} ; 2.5 is the number 25e-1 ; 1, 1.0 and 10e-1 are one number;
   a nil list is null on a tree without the repair; malformed texts are rejected *)
Example C16_json_value_nonvacuous :
  let v := VMap 5 [([97; 60], VList 6 [VInt (-12); VFloat (FFin 5 (-1)); VNull; VBool true; VStr [120]; VList 1 []]); ([98], VMap 7 [])] in
  json_ok true v
  /\ json_encode true v = Ok (b "{""a\u003c"":[-12,2.5,null,true,""x"",[]],""b"":{}}")
  /\ json_parse (b "{""a\u003c"":[-12,2.5,null,true,""x"",[]],""b"":{}}")
      = Some (JvObj [([97; 60], JvArr [JvNum true 12 0; JvNum false 25 (-1); JvNull; JvBool true; JvStr [120]; JvArr []]); ([98], JvObj [])])
  /\ jv_of_value v = json_parse (b "{""a\u003c"":[-12,2.5,null,true,""x"",[]],""b"":{}}")
  /\ json_parse (b "1") = json_parse (b " 10e-1 ") /\ json_parse (b "1.0") = Some (JvNum false 1 0) /\ json_parse (b "-0") = Some (JvNum true 0 0)
  /\ json_encode true (VList 0 []) = Ok (b "null") /\ json_encode false (VList 0 []) = Ok (b "[]")
  /\ json_parse (b "[1,]") = None /\ json_parse (b "01") = None /\ json_parse (b "{""a"":1} x") = None /\ json_parse (b "1.") = None.
Proof. vm_compute. repeat split; reflexivity. Qed.

(* ---------------- chains ---------------- *)
Theorem C16_chain_any_uri : forall (f : bstr -> bstr) s, Forall (fun c => c < 256) (f s) -> pct_decode (escape_uri (f s)) = Some (f s).
Proof. exact chain_any_uri. Qed.
Print Assumptions C16_chain_any_uri.

Theorem C16_chain_truncate_json : forall s n e out, utf8_valid s = true -> truncate s n e = Ok out ->
  json_parse_string (json_string out) = Some out.
Proof. exact chain_truncate_json. Qed.
Print Assumptions C16_chain_truncate_json.

Theorem C16_chain_truncate_jsstr : forall s n e out, utf8_valid s = true ->
  Forall (fun r => r < 65536 \/ is_print_tbl r = true) (runes s) -> truncate s n e = Ok out ->
  js_read_literal (js_escape is_print_tbl out) = Some out.
Proof. intros s n e out. exact (chain_truncate_jsstr is_print_tbl is_print_tbl_ls is_print_tbl_ps 39 (or_introl eq_refl) s n e out). Qed.
Print Assumptions C16_chain_truncate_jsstr.

Theorem C16_chain_escapehtml_json : forall s, utf8_valid s = true ->
  json_parse_string (json_string (tmpl_html_escape s)) = Some (tmpl_html_escape s).
Proof. exact chain_escapehtml_json. Qed.
Print Assumptions C16_chain_escapehtml_json.

Theorem C16_chain_truncate_wbr : forall s n e out k, truncate s n e = Ok out ->
  remove_tok wbr (insert_word_breaks out k) = tmpl_html_escape out.
Proof. exact chain_truncate_wbr. Qed.
Print Assumptions C16_chain_truncate_wbr.

Theorem C16_chain_truncate_br : forall s n e out, truncate s n e = Ok out ->
  remove_tok br (change_newline_to_br out) = tmpl_html_escape (remove_newlines out).
Proof. exact chain_truncate_br. Qed.
Print Assumptions C16_chain_truncate_br.

(* ---------------- the JavaScript counterparts (soyjs/lib/soyutils.js, over UTF-16 code units) ---------------- *)
(* Model/JsDirectives.v; tied to node on every run (all 65536 single units + code-unit strings) *)

(* soy.$$escapeJsString: between single or double quotes the escaped text denotes the value,
   for EVERY code-unit string (lone surrogates included) *)
Theorem C16_js_jsstr_roundtrip : forall q s, q = 39 \/ q = 34 -> jsu_read q (u_escape_js_string s) = Some s.
Proof. exact u_jsstr_roundtrip. Qed.
Print Assumptions C16_js_jsstr_roundtrip.

Theorem C16_js_jsstr_inert : forall s, Forall u_js_inert (u_escape_js_string s).
Proof. exact u_jsstr_inert. Qed.
Print Assumptions C16_js_jsstr_inert.

(* soy.$$escapeUri: safe alphabet, query-decodes to the UTF-8 form of the value; throws exactly on an unpaired surrogate *)
Theorem C16_js_uri_roundtrip : forall s, Forall (fun c => c < 65536) s ->
  match u_escape_uri s with
  | Ok out => exists bs, units_utf8 s = Some bs /\ pct_decode out = Some bs /\ Forall u_uri_byte out
  | Err _ => units_utf8 s = None
  | _ => False
  end.
Proof. intros s. exact (u_uri_roundtrip (length s) s (le_n _)). Qed.
Print Assumptions C16_js_uri_roundtrip.

(* soy.$$truncate *)
Theorem C16_js_truncate_fits : forall s n e, (Z.of_nat (length s) <= n)%Z -> u_truncate s n e = s.
Proof. exact u_truncate_fits. Qed.
Print Assumptions C16_js_truncate_fits.

Theorem C16_js_truncate_spec : forall s n e, (n < Z.of_nat (length s))%Z ->
  exists k : nat,
    u_truncate s n e = take k s ++ (if trunc_ell n e then dots else [])
    /\ (k <= length s)%nat
    /\ (Z.of_nat k <= Z.max 0 (trunc_cut n e))%Z
    /\ (0 <= n -> Z.of_nat (length (u_truncate s n e)) <= n)%Z
    /\ (u_high_at s (Z.of_nat k - 1) && u_low_at s (Z.of_nat k) = false).
Proof. exact u_truncate_cut. Qed.
Print Assumptions C16_js_truncate_spec.

(* what the generated code computes for changeNewlineToBr / insertWordBreaks: helper(soy.$$escapeHtml(x)) *)
Theorem C16_js_br_only : forall s, remove_tok br (u_change_newline_to_br s) = u_escape_html (remove_newlines s).
Proof. exact u_br_only. Qed.
Print Assumptions C16_js_br_only.

Theorem C16_js_wbr_only : forall s n, remove_tok wbr (u_insert_word_breaks s n) = u_escape_html s.
Proof. exact u_wbr_only. Qed.
Print Assumptions C16_js_wbr_only.

(* no <wbr> inside a character reference, for every limit >= 1: the output is a concatenation of units,
   each <wbr> or the whole escaped image of one code unit *)
Theorem C16_js_wbr_units : forall s maxc, (1 <= maxc)%Z ->
  exists us, Forall u_iwb_unit us /\ u_insert_word_breaks s maxc = concat_b us.
Proof. exact u_wbr_units. Qed.
Print Assumptions C16_js_wbr_units.

(* the limit must be >= 1: with 0 the shim breaks inside the reference (outside the statement's
   "in-range integer arguments"; the Go directive does not: it escapes rune by rune) *)
Example C16_js_wbr_limit_zero :
  u_insert_word_breaks [60] 0 = b "<wbr>&<wbr>l<wbr>t<wbr>;" /\ insert_word_breaks [60] 0 = b "<wbr>&lt;".
Proof. vm_compute. split; reflexivity. Qed.

(* apostrophe ( LF U+2028 lone-high a  ->  backslash-x27 ( backslash-n backslash-u2028 lone-high a ;
   U+1F600 (D83D DE00) encodes as %F0%9F%98%80 ; a lone surrogate makes escapeUri throw ;
   truncate backs out of a surrogate pair *)
Example C16_js_nonvacuous :
  u_escape_js_string [39; 40; 10; 8232; 55357; 97] = [92; 120; 50; 55; 40; 92; 110; 92; 117; 50; 48; 50; 56; 55357; 97]
  /\ jsu_read 39 [92; 120; 50; 55; 40; 92; 110; 92; 117; 50; 48; 50; 56; 55357; 97] = Some [39; 40; 10; 8232; 55357; 97]
  /\ jsu_read 39 [97; 39] = None /\ jsu_read 34 [8232] = None
  /\ u_escape_uri [97; 32; 39; 55357; 56832] = Ok (b "a%20%27%F0%9F%98%80")
  /\ (exists m, u_escape_uri [97; 55357] = Err m)
  /\ u_truncate [97; 55357; 56832; 98] 2 false = [97]
  /\ u_truncate [97; 98; 99; 100; 101; 102] 5 true = [97; 98; 46; 46; 46]
  /\ u_insert_word_breaks [97; 60; 98; 99; 100] 2 = b "a&lt;<wbr>bc<wbr>d"
  /\ u_change_newline_to_br [97; 13; 10; 60] = b "a<br>&lt;".
Proof. vm_compute. repeat split; try reflexivity. eexists; reflexivity. Qed.

(* ---------------- Go directive == JavaScript helper on the common domain ---------------- *)
(* truncate counts bytes in Go and code units in JavaScript; on ASCII text and a non-negative limit they agree *)
Theorem C16_truncate_go_js_agree_ascii : forall s n e, Forall (fun c => c < 128) s -> (0 <= n)%Z ->
  truncate s n e = Ok (u_truncate s n e).
Proof. exact truncate_agrees_ascii. Qed.
Print Assumptions C16_truncate_go_js_agree_ascii.

(* ---------------- the JavaScript helper models are soyutils.js, by translation ---------------- *)
(* tablegen generator 16-soyutils-js reads the escape maps, the matcher classes, the regex of newLineToBr, the
   surrogate bounds, WORD_BREAK and the code of $$truncate / insertWordBreaks out of the TEXT of
   soyjs/lib/soyutils.js (Generated/Tables.v, names jsu_...); Proofs/CodecJsTie.v: jst_replace is
   str.replace(class, ch => table[ch]) unit by unit, jst_replace_alts is str.replace(/(a|b|c)/g, text). *)
Theorem C16_js_tie_escape_js_string : forall s, Forall (fun c => c < 65536) s ->
  jst_replace jsu_js_matcher jsu_js_escape_map s = Some (u_escape_js_string s).
Proof. exact u_escape_js_string_matches_source. Qed.
Print Assumptions C16_js_tie_escape_js_string.

Theorem C16_js_tie_escape_html : forall s, Forall (fun c => c < 65536) s ->
  jst_replace jsu_html_matcher jsu_html_escape_map s = Some (u_escape_html s).
Proof. exact u_escape_html_matches_source. Qed.
Print Assumptions C16_js_tie_escape_html.

(* escapeUri: urlEncode is encodeURIComponent (ECMA-262, modelled); the units it leaves alone are then written
   through soy.$$problematicUriMarks_ / soy.$$pctEncode_ exactly as the model does *)
Theorem C16_js_tie_escape_uri : jsu_uri_encoder = jst_encodeURIComponent /\ jsu_pct_lower_hex = true
  /\ forall c, c < 65536 -> uri_unescaped c = true ->
       u_escape_uri [c] = Ok (jst_uri_mark_piece c) /\ (jst_in_class jsu_uri_marks c = true -> 16 <= c < 256).
Proof.
  destruct u_escape_uri_encoder_matches_source as [H1 H2]. split; [exact H1|]. split; [exact H2|].
  exact u_escape_uri_marks_matches_source.
Qed.
Print Assumptions C16_js_tie_escape_uri.

Theorem C16_js_tie_newline_to_br : forall s,
  u_newline_to_br s = jst_replace_alts jsu_br_alternatives jsu_br_replacement 0 s.
Proof. exact u_newline_to_br_matches_source. Qed.
Print Assumptions C16_js_tie_newline_to_br.

Theorem C16_js_tie_surrogates : forall c,
  u_is_high c = in_range (fst jsu_high_surrogate) (snd jsu_high_surrogate) c
  /\ u_is_low c = in_range (fst jsu_low_surrogate) (snd jsu_low_surrogate) c.
Proof. exact u_surrogates_match_source. Qed.
Print Assumptions C16_js_tie_surrogates.

(* $$truncate and the insertWordBreaks loop: the code is compared as text with what the model was written against *)
Theorem C16_js_tie_truncate_text : jsu_truncate_src = jst_truncate_text /\ jsu_insert_word_breaks_src = jst_insert_word_breaks_text
  /\ jsu_word_break = wbr /\ jsu_br_replacement = br.
Proof.
  split; [exact u_truncate_source_text|]. split; [exact u_insert_word_breaks_source_text|]. exact u_word_break_matches_source.
Qed.
Print Assumptions C16_js_tie_truncate_text.

(* the tables are not empty shells: ' is matched and written as backslash-x27, a is copied *)
Example C16_js_tie_nonvacuous :
  jst_replace jsu_js_matcher jsu_js_escape_map [39; 97] = Some [92; 120; 50; 55; 97]
  /\ jst_replace_alts jsu_br_alternatives jsu_br_replacement 0 [97; 13; 10; 98; 13] = b "a<br>b<br>"
  /\ jst_in_class jsu_uri_marks 40 = true /\ jst_uri_mark_piece 40 = b "%28".
Proof. vm_compute. repeat split; reflexivity. Qed.

(* ---------------- the directives inside the walker-level model ---------------- *)
(* Model/Directives.v apply_fn (base walker) answers OutOfModel for escapeJsString and json; the extended walker
   walk_xj of Model/InterpJson.v (C06) applies them through hooks.  Its json hook computes exactly json_encode --
   the encoder of the theorems above -- on values with sorted keys whose floats both float printers write alike,
   so a {$v|json} rendered through walk_xj parses back to the value. *)
Theorem C16_walker_json_is_json_encode : forall v args, cwj_sorted v ->
  dir_json (Some v) args = (s <- json_encode json_nil_null v ;; Ok (Some (VStr s))).
Proof. exact cwj_dir_json. Qed.
Print Assumptions C16_walker_json_is_json_encode.

Theorem C16_walker_json_roundtrip : forall v args s, json_ok json_nil_null v -> cwj_floats v ->
  dir_json (Some v) args = Ok (Some (VStr s)) ->
  exists j, jv_of_value v = Some j /\ json_parse s = Some j.
Proof. exact cwj_dir_json_roundtrip. Qed.
Print Assumptions C16_walker_json_roundtrip.
