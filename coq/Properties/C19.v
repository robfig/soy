(* C19 — errors point at the offending file and line.  Property theorems only.

   RENDER HALF (this file, proved for every registry, template, data and fuel):
   the model is Model/Interp.v ([render]: rr_file / rr_line computed as errRecover ->
   errFromNode -> Registry.Filename / LineNumber do from the entry state's s.node,
   [cur]); it describes /repo after the repairs bb87cc7, 58a9bd4, 228b3d2.
   Spec: Spec/ErrPos.v.

   PARSE HALF: see the second part of this file. *)
(* source tie by translation: the lemmas of these files are obligations of this property *)
From Soy Require Import Proofs.SourceTieErrPos Proofs.SourceTieLexer Proofs.SourceTieParser Proofs.SourceTieRegistry.
From Soy Require Import Model.Bytes Model.Num Model.Values Model.Outcome Model.Ast Model.Escape Model.Directives
  Model.Print Generated.Tables Model.Interp
  Spec.ErrPos Proofs.InterpLogic Proofs.WalkRel Proofs.ErrPosProofs Proofs.ErrPathProofs.
Open Scope N_scope.

(* ------------------------------------------------------------------ *)
(* 1. The file is the one recorded for the ENTRY template, whatever the call depth of the failure. *)
Theorem C19_render_error_file :
  forall cf fuel name did dat cl bl fid t src file,
    find_template (r_templates (c_reg cf)) name = Some t ->
    assoc_s name (r_sources (c_reg cf)) = Some src ->
    assoc_s name (r_files (c_reg cf)) = Some file ->
    forall m, rr_outcome (render cf fuel name did dat cl bl fid) = Err m ->
    rr_file (render cf fuel name did dat cl bl fid) = file.
Proof. exact render_error_file_lemma. Qed.
Print Assumptions C19_render_error_file.

(* 2. The reported position is that of a node that occurs syntactically in the entry template;
   with the node positions of that template inside its source text (decidable:
   [positions_in_sourceb]) the line is line_at src of it, 1 <= line <= lines src, and the line
   computation never crashes (a Crash of render is a Crash of the walk itself). *)
Theorem C19_render_error_in_entry_template :
  forall cf fuel name did dat cl bl fid t src file,
    find_template (r_templates (c_reg cf)) name = Some t ->
    assoc_s name (r_sources (c_reg cf)) = Some src ->
    assoc_s name (r_files (c_reg cf)) = Some file ->
    positions_in_source src (t_node t) ->
    let res := render cf fuel name did dat cl bl fid in
    let run := walk cf fuel (t_node t)
                 (init_state (sc_enter (new_scope did dat)) (entry_mode (t_ns_autoescape t)) name cl bl fid) in
    (forall m, fst run = Err m ->
       rr_outcome res = Err m /\ rr_file res = file /\
       exists n, subnode n (t_node t) /\ cur (snd run) = pos_of n /\
                 rr_line res = line_at src (pos_of n) /\ 1 <= rr_line res <= lines src)
    /\ (forall m, rr_outcome res = Err m -> fst run = Err m)
    /\ (forall c, rr_outcome res = Crash c -> fst run = Crash c).
Proof. exact render_error_in_entry_template_lemma. Qed.
Print Assumptions C19_render_error_in_entry_template.

(* 3. The node is the one of the entry template that was executing: there is a chain
   entry template node = n0, n1, ..., nk of nodes each lying within the one before, each of whose
   walks (in the entry template, call depth 0) ends in this very error and final state, the last of
   which fails in its own code (or inside a template it calls) and not in a sub-walk; the reported
   position is that of nk -- [reported_at]: exactly pos_of nk, except for a print whose argument has
   been evaluated (a position inside the argument: evalPrint walks it without restoring s.node), a
   message (a position inside the message) and three internal errors no compiled tree raises. *)
Theorem C19_render_error_is_active_command :
  forall cf fuel name did dat cl bl fid t src file m,
    find_template (r_templates (c_reg cf)) name = Some t ->
    assoc_s name (r_sources (c_reg cf)) = Some src ->
    assoc_s name (r_files (c_reg cf)) = Some file ->
    positions_in_source src (t_node t) ->
    let res := render cf fuel name did dat cl bl fid in
    rr_outcome res = Err m ->
    exists fin path,
      failing_path cf m fin fuel (t_node t) path /\
      within (last path (t_node t)) (t_node t) /\
      reported_at (last path (t_node t)) m (cur fin) /\
      rr_file res = file /\ rr_line res = line_at src (cur fin) /\ 1 <= rr_line res <= lines src.
Proof. exact render_error_is_active_command_lemma. Qed.
Print Assumptions C19_render_error_is_active_command.

(* the ingredients, for any node: every failing walk in the entry template has a failing path ... *)
Theorem C19_failing_path_exists :
  forall cf fuel n e fin, walk_fails cf fuel n e fin ->
    exists path, failing_path cf e fin fuel n path /\ reported_at (last path n) e (cur fin).
Proof. exact failing_path_exists. Qed.
Print Assumptions C19_failing_path_exists.

(* ... and a node failing in its own code is reported at itself *)
Theorem C19_own_failure_position :
  forall cf fuel n st e fin, depth_ st = 0%nat ->
    walk_body cf (mask (walk cf fuel)) n st = (Err e, fin) -> reported_at n e (cur fin).
Proof. exact own_failure_position. Qed.
Print Assumptions C19_own_failure_position.

(* 4. A failure inside a callee is reported at the {call} of the entry template: once data and
   params are resolved, whatever error the callee ends in -- at any depth below -- leaves the
   position at the call node's; and the position register never changes while depth_ > 0. *)
Theorem C19_callee_failure_at_call :
  forall cf fuel p name alldata dat params callee st cd s2 e fin,
    depth_ st = 0%nat ->
    find_template (r_templates (c_reg cf)) name = Some callee ->
    (cd0 <-- call_data (walk cf fuel) alldata dat ;;; call_params (walk cf fuel) params cd0) (set_cur st p) = (Ok cd, s2) ->
    call_enter (walk cf fuel) callee cd (set_cur s2 p) = (Err e, fin) ->
    walk cf (S fuel) (NCall p name alldata dat params) st = (Err e, fin) /\ cur fin = p /\ depth_ fin = 0%nat.
Proof. exact callee_failure_at_call. Qed.
Print Assumptions C19_callee_failure_at_call.

Theorem C19_position_frozen_in_callee :
  forall cf fuel n st r st', depth_ st <> 0%nat -> walk cf fuel n st = (r, st') ->
    cur st' = cur st /\ depth_ st' = depth_ st.
Proof. exact position_frozen_in_callee. Qed.
Print Assumptions C19_position_frozen_in_callee.

(* the general containment fact behind 2: after a walk at depth 0 the register holds a position of the walked tree *)
Theorem C19_walk_position_in_subtree :
  forall cf fuel n st r st', depth_ st = 0%nat -> walk cf (S fuel) n st = (r, st') -> In (cur st') (poss n).
Proof. exact walk_position_in_subtree. Qed.
Print Assumptions C19_walk_position_in_subtree.

(* ------------------------------------------------------------------ *)
(* Non-vacuity: an entry template (file e.soy, 9 lines) whose {call} on line 4 carries a param
   content block on lines 5-7; the callee (file c.soy) prints an undefined variable on its line 7.
   render returns the error with file e.soy and line 4 -- the line of the {call}; not line 7 of
   c.soy (the failing print), nor line 7 of e.soy (position 52, the last node of the content
   block: what the code reported before repair 58a9bd4). *)
Definition ex_src_e := Eval vm_compute in b "{namespace a}
{template .e}
x
{call .c}
{param p}
y
{/param}
{/call}
{/template}
".
Definition ex_src_c := Eval vm_compute in b "{namespace a}




{template .c}
{$m}
{/template}
".
Definition ex_entry : template :=
  {| t_name := b "a.e";
     t_node := NTemplate 23 (b "a.e")
                 (NList 30 [NRawText 30 (b "x");
                            NCall 35 (b "a.c") false None
                              [NParamContent 41 (b "p") (NList 52 [NRawText 52 (b "y")])]]) 0 false;
     t_ns_name := b "a"; t_ns_autoescape := 0; t_params := []; t_file := b "e.soy" |}.
Definition ex_callee : template :=
  {| t_name := b "a.c";
     t_node := NTemplate 27 (b "a.c") (NList 33 [NPrint 35 (NDataRef 35 (b "m") []) []]) 0 false;
     t_ns_name := b "a"; t_ns_autoescape := 0; t_params := [(b "m", true); (b "p", true)]; t_file := b "c.soy" |}.
Definition ex_cfg : cfg :=
  {| c_reg := {| r_templates := [ex_entry; ex_callee];
                 r_sources := [(b "a.e", ex_src_e); (b "a.c", ex_src_c)];
                 r_files := [(b "a.e", b "e.soy"); (b "a.c", b "c.soy")] |};
     c_ij := None; c_oblig := []; c_msgs := None |}.
Definition ex_res := render ex_cfg 50 (b "a.e") 2 [] None None 100.

Example C19_render_nonvacuous :
  find_template (r_templates (c_reg ex_cfg)) (b "a.e") = Some ex_entry
  /\ assoc_s (b "a.e") (r_sources (c_reg ex_cfg)) = Some ex_src_e
  /\ assoc_s (b "a.e") (r_files (c_reg ex_cfg)) = Some (b "e.soy")
  /\ positions_in_source ex_src_e (t_node ex_entry)
  /\ rr_outcome ex_res = Err e_undefined
  /\ rr_file ex_res = b "e.soy" /\ rr_line ex_res = 4 /\ lines ex_src_e = 10
  /\ line_at ex_src_e 35 = 4 /\ line_at ex_src_e 52 = 7 /\ line_at ex_src_c 35 = 7.
Proof.
  split; [reflexivity|]. split; [reflexivity|]. split; [reflexivity|].
  split; [apply positions_in_sourceb_ok; vm_compute; reflexivity|].
  vm_compute. repeat split; reflexivity.
Qed.

(* several files may declare the same namespace: what Registry.Add records (source, file) is keyed by the
   TEMPLATE name.  Here z.soy, added after e.soy, declares namespace "a" too (template a.z, a much shorter
   text): the error of a.e still carries e.soy and line 4 of e.soy's text -- a registry that looked the
   file up by namespace would answer z.soy and line 3 (position 35 counted in z.soy's text), and for a
   position further down (52, inside the content block) the slice of z.soy's 40 bytes would panic. *)
Definition ex_src_z := Eval vm_compute in b "{namespace a}
{template .z}
{/template}
".
Definition ex_sibling : template :=
  {| t_name := b "a.z"; t_node := NTemplate 23 (b "a.z") (NList 27 []) 0 false;
     t_ns_name := b "a"; t_ns_autoescape := 0; t_params := []; t_file := b "z.soy" |}.
Definition ex_cfg_ns : cfg :=
  {| c_reg := {| r_templates := [ex_entry; ex_callee; ex_sibling];
                 r_sources := [(b "a.e", ex_src_e); (b "a.c", ex_src_c); (b "a.z", ex_src_z)];
                 r_files := [(b "a.e", b "e.soy"); (b "a.c", b "c.soy"); (b "a.z", b "z.soy")] |};
     c_ij := None; c_oblig := []; c_msgs := None |}.
Example C19_render_shared_namespace_nonvacuous :
  let r := render ex_cfg_ns 50 (b "a.e") 2 [] None None 100 in
  t_ns_name ex_entry = t_ns_name ex_sibling /\ t_file ex_entry <> t_file ex_sibling
  /\ rr_outcome r = Err e_undefined /\ rr_file r = b "e.soy" /\ rr_line r = 4
  /\ line_number ex_src_z 35 = Some 3 /\ line_number ex_src_z 52 = None.
Proof.
  cbv zeta. split; [reflexivity|]. split; [vm_compute; discriminate|].
  vm_compute. repeat split; reflexivity.
Qed.

(* at depth 0: the same entry template with a failing print on line 4 instead of the text *)
Definition ex_entry0 : template :=
  {| t_name := b "a.e";
     t_node := NTemplate 23 (b "a.e")
                 (NList 30 [NPrint 30 (NBin OLt 30 (NInt 29 1) (NString 30 (b "'a'") (b "a"))) []]) 0 false;
     t_ns_name := b "a"; t_ns_autoescape := 0; t_params := []; t_file := b "e.soy" |}.
Definition ex_cfg0 : cfg :=
  {| c_reg := {| r_templates := [ex_entry0]; r_sources := [(b "a.e", ex_src_e)]; r_files := [(b "a.e", b "e.soy")] |};
     c_ij := None; c_oblig := []; c_msgs := None |}.
Example C19_render_depth0_nonvacuous :
  let r := render ex_cfg0 50 (b "a.e") 2 [] None None 100 in
  rr_outcome r = Err e_notnumber /\ rr_file r = b "e.soy" /\ rr_line r = 4.
Proof. vm_compute. repeat split; reflexivity. Qed.

(* ================================================================== *)
(* PARSE HALF.  Models: Model/Lexer.v (scanner), Model/Token.v (tree.next/backup/peek, the token
   errorf takes its position from), Model/ExprParser.v + Model/Parser.v (expression and command-level
   parser; [PErr at_ class st] records the token whose position is reported), Spec/ErrText.v (the text
   errorAt builds), after the repairs bb87cc7 and 228b3d2.

   The statement of DESIGN section 4 is

     parse_error_position : parse name s = Err e ->
         e.file = name /\ 1 <= e.line <= lines s /\ e.line = line_at s e.pos
         /\ e.pos = pos (offending item) /\ text_mentions e

   and is proved here in these theorems over the models:
   - C19_parse_error_position (scanner model composed with parser model, every input, every error
     site): the reported token is the item the parser received last or the one just before it -- an
     item the scanner sent for s: inside s, line between 1 and lines s; when it is an error item it is
     the scanner's LAST item and stands at the cursor where scanning stopped, which for an
     unterminated soydoc / block comment / string / tag is the end of the input; or (quoted attribute
     expression) the last / last-but-one item of that expression's own scanner, placed in the file at
     base + offset (C19_quoted_error_position).
   - C19_error_sites_enumerated: the errorf / unexpected / expect / error call sites of parse.go,
     re-read from the source on every run, are exactly the reviewed ones (a new site breaks this).
   - C19_error_text_shows_position: the error carries the given file name, and its text starts with
     "template <file>:<line>:<col>: " for the very line and column it carries (file names without %).
   - C19_scan_prefix_determinism(_per_state) / C19_valid_scan_transfers(_per_state): prefix determinism
     of the scanner -- two inputs with a common prefix pass through the same configurations as long as
     every step ends [margin st] bytes before the end of the common prefix, st the state function that
     ran (all fifteen): 4 for the tag delimiters and lexBeginTag, 8 for text, the inside of a tag,
     strings, comments, identifiers and numbers, 12 for css and literal blocks, 16 for soydoc, 24 for a
     header @param (the uniform margin of 24 bytes is a corollary).
   - C19_parse_error_position_all: the composed statement for EVERY byte string, without hypotheses on
     the item list (floats_ok) or the nested scanner (lexq_wf): the scanner model is its own nested
     scanner (Proofs/LexParseBridge.v soy_file_total_all / nested_scanner_at_base).
   Partial -- C19_fault_line_partial: the exact-line statements for an injected stray brace /
   illegal character are derived from the scan of the VALID file under the per-state margins; the
   end-of-input classes (unterminated soydoc / comment / string / tag) are on the last line; see the
   comment there for what is missing. *)
From Soy Require Import Model.Utf8 Model.Token Model.Lexer Model.RawText Model.ExprParser Model.Parser
  Proofs.ErrTokProofs Proofs.ParseErrBound Proofs.LexErrPos Proofs.LexEofPos Proofs.ParseEndToEnd
  Spec.ErrText Proofs.LexTokens Proofs.LexFinalPos Proofs.ErrPosWindow Proofs.ErrPosWindowCmd Proofs.ErrPosFinal
  Proofs.ErrPosReach Proofs.ErrPosSites Proofs.ErrPosText Proofs.LexPrefixStates Proofs.LexPrefixMain Proofs.ErrPosPrefix Proofs.ErrPosCompose.
Open Scope N_scope.

(* every error of the model of parse.SoyFile, on the items of the scanner model, for every input *)
Theorem C19_parse_error_position :
  forall ul ud, ul (-1)%Z = false -> ud (-1)%Z = false ->
  forall fuel s ts lexq unq t c st,
    lex_items ul ud fuel false s = Ok ts ->
    let out := soy_file (N.of_nat (length s)) lexq unq ts in
    po_result out = PErr t c st ->
    (werr ts t st /\ item_facts ul ud s ts t)
    \/ quoted_window (N.of_nat (length s)) lexq t c (po_scans out).
Proof. exact parse_error_position. Qed.
Print Assumptions C19_parse_error_position.

(* the window alone, for ANY item list (not only a scanner's): the item received last, or the one before *)
Theorem C19_parse_error_window :
  forall inlen lexq unq ts t c st,
    po_result (soy_file inlen lexq unq ts) = PErr t c st ->
    (t = itm ts (p_recv st) \/ t = itm ts (p_recv st - 1)%nat)
    \/ quoted_window inlen lexq t c (po_scans (soy_file inlen lexq unq ts)).
Proof. exact soy_file_error_window. Qed.
Print Assumptions C19_parse_error_window.

(* the expression parser alone (parse.Expr and every parseExpr the command parser starts) *)
Theorem C19_expr_error_window :
  forall ts fuel prec p, W ts p ->
    match parse_expr fuel prec p with
    | PErr t _ p' => t = itm ts (p_recv p') \/ t = itm ts (p_recv p' - 1)%nat
    | POk _ p' => W ts p'
    | _ => True
    end.
Proof. intros ts fuel prec p H. pose proof (xp_parse_expr ts fuel prec p H) as X. destruct (parse_expr fuel prec p); exact X. Qed.
Print Assumptions C19_expr_error_window.

(* a fault inside a quoted attribute expression (lexExprAt, base > 0): the reported item is an item of
   the expression's own scanner placed at base + its offset in the expression, inside the file (or,
   without enclosing text, inside the expression: base = 0), and the line computed is inside the text *)
Theorem C19_quoted_error_position :
  forall inlen lexq t c scans, quoted_window inlen lexq t c scans ->
    exists str base,
      (t = zero_tok \/ exists it, In it (lexq str) /\ t = shift_tok base it /\ t_pos t = base + t_pos it) /\
      (t_pos t <= inlen \/ (base = 0 /\ t_pos t <= N.of_nat (length str))) /\
      forall src, 1 <= line_at src (t_pos t) <= lines src.
Proof. exact quoted_error_position. Qed.
Print Assumptions C19_quoted_error_position.

(* the scanner, every input, every mode and base: the last item stands at the cursor where the scan
   stopped, inside the input; an unterminated soydoc / comment / string / tag is reported at the end *)
Theorem C19_scan_final_item :
  forall ul ud, ul (-1)%Z = false -> ud (-1)%Z = false ->
  forall base, (0 <= base)%Z -> forall fuel expr_mode s l,
    lex_run_at ul ud base fuel expr_mode s = Ok l ->
    exists it rest, l_out l = it :: rest /\ t_pos it = Z.to_N (base + l_pos l) /\
      (0 <= l_pos l <= Z.of_nat (length s))%Z /\
      (t_typ it = itemError -> eof_class (t_val it) = true -> l_pos l = Z.of_nat (length s)).
Proof. exact scan_final_item. Qed.
Print Assumptions C19_scan_final_item.

(* the error sites of package parse, enumerated from the source by tablegen (helpers inlined into the reviewed
   functions, which are cover_map's keys), are the reviewed ones *)
Theorem C19_error_sites_enumerated :
  uncovered_sites = [] /\ stale_sites = [] /\
  forallb (fun s : site => let '(f, _, _, _, _) := s in existsb (fun p => bstr_eqb f (fst p)) cover_map) parser_error_sites = true /\
  parser_error_site_roots = map fst cover_map.
Proof. exact (conj no_uncovered_site (conj no_stale_site (conj sites_have_model_procedures roots_are_cover_map))). Qed.
Print Assumptions C19_error_sites_enumerated.

(* file name and message text *)
Theorem C19_error_text_shows_position :
  forall fmt2 : bstr -> bstr,
    (forall lit rest, ~ In 37 lit -> fmt2 (lit ++ rest) = lit ++ fmt2 rest) ->
  forall name line col body, ~ In 37 name ->
    let e := error_at fmt2 name line col body in
    pe_file e = name /\ pe_line e = line /\ pe_col e = col /\
    pe_text e = Some (prefix_text (pe_file e) (pe_line e) (pe_col e) ++ fmt2 body) /\
    (forall text, pe_text e = Some text -> mentions text (pe_file e) (pe_line e) (pe_col e)).
Proof. exact error_text_shows_position. Qed.
Print Assumptions C19_error_text_shows_position.

(* prefix determinism of the scanner: one lemma per scanning loop and state function (Proofs/LexPrefix*.v) *)
Theorem C19_scan_prefix_determinism :
  forall ul ud pre r1 r2 base k st l st' l',
    psteps ul ud base (pre ++ r1) k st l = Ok (st', l') ->
    (forall j, (j <= k)%nat -> forall stj lj, psteps ul ud base (pre ++ r1) j st l = Ok (stj, lj) ->
       good pre stj lj) ->
    psteps ul ud base (pre ++ r2) k st l = Ok (st', l').
Proof. exact steps_det. Qed.
Print Assumptions C19_scan_prefix_determinism.

(* ... for the scan of a file from its beginning; start <= pos and liveness are discharged by the scanner invariant *)
Theorem C19_valid_scan_transfers :
  forall ul ud, ul (-1)%Z = false -> ud (-1)%Z = false ->
  forall pre r1 r2 k st l,
    steps ul ud (pre ++ r1) 0 k LText lex_init = Ok (st, l) -> st <> LDone ->
    (forall j stj lj, (j <= k)%nat -> steps ul ud (pre ++ r1) 0 j LText lex_init = Ok (stj, lj) ->
       before_margin pre lj) ->
    steps ul ud (pre ++ r2) 0 k LText lex_init = Ok (st, l).
Proof. exact valid_scan_transfers. Qed.
Print Assumptions C19_valid_scan_transfers.

(* the same with the look-ahead of each state function instead of the uniform 24 bytes: every step ends
   [margin st] bytes before the end of the common prefix, st the state function that ran *)
Theorem C19_state_margins :
  margin LText = 8%Z /\ margin LLeftDelim = 4%Z /\ margin LRightDelim = 4%Z /\ margin LRightDelimEnd = 4%Z /\
  margin LBeginTag = 4%Z /\ margin LInsideTag = 8%Z /\ margin LSoyDoc = 16%Z /\ margin LLineComment = 8%Z /\
  margin LBlockComment = 8%Z /\ (forall q, margin (LString q) = 8%Z) /\ margin LIdent = 8%Z /\
  margin LHeaderParam = 24%Z /\ margin LCss = 12%Z /\ margin LLiteral = 12%Z /\ margin LNumber = 8%Z /\
  forall st, (0 <= margin st <= M)%Z.
Proof. repeat split; try reflexivity; try (intros; reflexivity); apply margin_le_M. Qed.
Print Assumptions C19_state_margins.

Theorem C19_scan_prefix_determinism_per_state :
  forall ul ud pre r1 r2 base k st l st' l',
    psteps ul ud base (pre ++ r1) k st l = Ok (st', l') ->
    (forall j, (j <= k)%nat -> forall stj lj, psteps ul ud base (pre ++ r1) j st l = Ok (stj, lj) ->
       stj <> LDone /\ (l_start lj <= l_pos lj)%Z) ->
    (forall j, (j < k)%nat -> forall stj lj stn ln,
       psteps ul ud base (pre ++ r1) j st l = Ok (stj, lj) -> psteps ul ud base (pre ++ r1) (S j) st l = Ok (stn, ln) ->
       (l_pos ln + margin stj <= Z.of_nat (length pre))%Z) ->
    psteps ul ud base (pre ++ r2) k st l = Ok (st', l').
Proof. exact steps_det_m. Qed.
Print Assumptions C19_scan_prefix_determinism_per_state.

Theorem C19_valid_scan_transfers_per_state :
  forall ul ud, ul (-1)%Z = false -> ud (-1)%Z = false ->
  forall pre r1 r2 k st l,
    steps ul ud (pre ++ r1) 0 k LText lex_init = Ok (st, l) -> st <> LDone ->
    within_margins ul ud pre (pre ++ r1) k ->
    steps ul ud (pre ++ r2) 0 k LText lex_init = Ok (st, l).
Proof. exact valid_scan_transfers_m. Qed.
Print Assumptions C19_valid_scan_transfers_per_state.

(* PARTIAL.  Full statement (DESIGN: stray_brace_line, illegal_char_line "for every valid prefix"):
     for every VALID file v, every line L of it and every injection of a fault on L, the error of the
     faulted file is reported on line L (lexical faults, unknown command) or between L and the last line
     (unterminated constructs).
   Proved (1, 2), from the scan of the valid file: v = pre ++ r1 any file whose scan reaches, after k steps
   each of which ends [margin st] bytes before |pre| (within_margins: st the state function that ran; 4 after a
   tag delimiter, 8 after text / an identifier / a number / a string / a step inside the tag, ... instead of the
   uniform 24), the text state (the inside of a tag); f = pre ++ r2 any file with the same first |pre| bytes in
   which plain text and a closing brace (white space and an illegal character) follow that cursor: the items of
   f are the items the valid scan had sent followed by the error item just after the offending character, whose
   line is 1 + the line feeds before that character.  Proved (3, 4), without any margin: the same from every
   configuration the scan of f itself reaches.  Proved (5), the classes reported at the end of the input
   (unterminated soydoc / block comment / string / tag): whenever the scan of f = pre ++ r2 ends in an error item
   of these classes, the scan of f passes through every configuration the valid scan reaches within the margins,
   the error item is the last item, stands at |f|, and its line is the LAST line of f, not before the line of any
   position of f (of the place where the construct was opened).
   Missing for the full statement: (a) lexical faults closer to the configuration the valid scan reaches than
   the margin of the state function before it (4 to 8 bytes after an ordinary tag; the model's [next] decodes up
   to four bytes, so one rune of look-ahead costs 4); (b) that an unterminated construct does END the scan in an
   error item of its class: proved from the text of the fault for a block comment (C19_unterminated_comment_line
   below: ASCII without star-slash after the opening), for strings, tags and soydoc only per scanning loop
   (C19_string_error_at_end, C19_unclosed_tag_at_end, C19_scan_final_item) under the hypothesis that the loop ends
   the scan;
   (c) the parser-level classes (unknown command, end of input inside a template, fault inside a quoted
   attribute expression): C19_parse_error_position_all says WHICH item is reported (last or last-but-one
   received), C19_print_trailing_token_reported covers {foo $x}; their exact line is not derived from the valid
   prefix; (d) that the parser, handed the scanner's error item, reports it rather than an earlier item
   (C19_text_or_tag_error_item covers textOrTag, the site every injected lexical fault of the harness reaches). *)
Theorem C19_fault_line_partial :
  forall ul ud, ul (-1)%Z = false -> ud (-1)%Z = false ->
  (forall pre r1 r2 k l txt rest fuel,
     steps ul ud (pre ++ r1) 0 k LText lex_init = Ok (LText, l) ->
     within_margins ul ud pre (pre ++ r1) k ->
     drop (Z.to_nat (l_pos l)) (pre ++ r2) = txt ++ 125 :: rest -> Forall plain txt ->
     let f := pre ++ r2 in
     let e := err_item (l_pos l + Z.of_nat (length txt) + 1) e_close_brace in
     lex_items ul ud (k + S fuel) false f = Ok (rev (l_out l) ++ [e]) /\
     line_at f (t_pos e) = 1 + count_nl (take (Z.to_nat (l_pos l)) f ++ txt))
  /\
  (forall pre r1 r2 k l ws c rest fuel,
     steps ul ud (pre ++ r1) 0 k LText lex_init = Ok (LInsideTag, l) ->
     within_margins ul ud pre (pre ++ r1) k ->
     drop (Z.to_nat (l_pos l)) (pre ++ r2) = ws ++ c :: rest -> Forall space_byte ws -> c < 128 ->
     reaches_default (Z.of_N c) = true -> c <> 10 ->
     let f := pre ++ r2 in
     let e := err_item (l_pos l + Z.of_nat (length ws) + 1) e_bad_char in
     lex_items ul ud (k + (length ws + S fuel)) false f = Ok (rev (l_out l) ++ [e]) /\
     line_at f (t_pos e) = 1 + count_nl (take (Z.to_nat (l_pos l)) f ++ ws))
  /\
  (forall s k l txt rest fuel,
     steps ul ud s 0 k LText lex_init = Ok (LText, l) -> (0 <= l_pos l)%Z ->
     drop (Z.to_nat (l_pos l)) s = txt ++ 125 :: rest -> Forall plain txt ->
     let e := err_item (l_pos l + Z.of_nat (length txt) + 1) e_close_brace in
     lex_items ul ud (k + S fuel) false s = Ok (rev (l_out l) ++ [e]) /\
     line_at s (t_pos e) = 1 + count_nl (take (Z.to_nat (l_pos l)) s ++ txt))
  /\
  (forall s k l ws c rest fuel,
     steps ul ud s 0 k LText lex_init = Ok (LInsideTag, l) -> (0 <= l_pos l)%Z ->
     drop (Z.to_nat (l_pos l)) s = ws ++ c :: rest -> Forall space_byte ws -> c < 128 ->
     reaches_default (Z.of_N c) = true -> c <> 10 ->
     let e := err_item (l_pos l + Z.of_nat (length ws) + 1) e_bad_char in
     lex_items ul ud (k + (length ws + S fuel)) false s = Ok (rev (l_out l) ++ [e]) /\
     line_at s (t_pos e) = 1 + count_nl (take (Z.to_nat (l_pos l)) s ++ ws))
  /\
  (forall pre r1 r2 k st l fuel ts e,
     steps ul ud (pre ++ r1) 0 k LText lex_init = Ok (st, l) -> st <> LDone ->
     within_margins ul ud pre (pre ++ r1) k ->
     let f := pre ++ r2 in
     lex_items ul ud fuel false f = Ok (ts ++ [e]) -> t_typ e = itemError -> eof_class (t_val e) = true ->
     steps ul ud f 0 k LText lex_init = Ok (st, l) /\
     t_pos e = N.of_nat (length f) /\ line_at f (t_pos e) = lines f /\
     (forall opened, opened <= N.of_nat (length f) -> line_at f opened <= line_at f (t_pos e))).
Proof.
  intros ul ud Hl Hd. split; [|split; [|split; [|split]]].
  - intros. eapply (stray_brace_after_valid_prefix_m ul ud Hl Hd pre r1 r2); eassumption.
  - intros. eapply (illegal_char_after_valid_prefix_m ul ud Hl Hd pre r1 r2); eassumption.
  - intros. eapply stray_brace_reached; eassumption.
  - intros. eapply illegal_char_reached; eassumption.
  - intros. eapply (eof_fault_after_valid_prefix ul ud Hl Hd pre r1 r2); eassumption.
Qed.
Print Assumptions C19_fault_line_partial.

(* an unterminated block comment, from the TEXT of the fault (item (b) of the list above, for this class): from
   whatever configuration in the block-comment state the scan of the faulted file s itself reaches -- the cursor
   stands after the opening slash-star, at any offset, no margin -- if only ASCII without a closing star-slash
   follows, the items of s are the items sent so far and the error item `unclosed comment` at the end of the input;
   its line is the last line of s, not before the line of any position of s *)
From Soy Require Import Proofs.ErrPosUnterminated.
Open Scope N_scope.
Theorem C19_unterminated_comment_line :
  forall ul ud s k l body fuel,
    steps ul ud s 0 k LText lex_init = Ok (LBlockComment, l) -> (0 <= l_pos l <= Z.of_nat (length s))%Z ->
    drop (Z.to_nat (l_pos l)) s = body -> Forall c19_ascii body -> c19_no_close false body ->
    let e := err_item (Z.of_nat (length s)) e_comment_eof in
    lex_items ul ud (k + S fuel) false s = Ok (rev (l_out l) ++ [e]) /\
    t_pos e = N.of_nat (length s) /\ line_at s (t_pos e) = lines s /\
    (forall opened, (opened <= N.of_nat (length s))%N -> (line_at s opened <= line_at s (t_pos e))%N).
Proof. exact c19_unterminated_comment_reached. Qed.
Print Assumptions C19_unterminated_comment_line.

Definition ex_open_comment : bstr := Eval vm_compute in b "a /* b
c
".
Example C19_unterminated_comment_nonvacuous :
  let nl := fun _ : Z => false in
  exists l, steps nl nl ex_open_comment 0 1 LText lex_init = Ok (LBlockComment, l) /\ l_pos l = 4%Z /\
    Forall c19_ascii (drop 4 ex_open_comment) /\ c19_no_close false (drop 4 ex_open_comment) /\
    lex_items nl nl 5 false ex_open_comment = Ok (rev (l_out l) ++ [err_item 9 e_comment_eof]) /\
    line_at ex_open_comment 9%N = 3%N /\ lines ex_open_comment = 3%N.
Proof.
  cbv zeta. eexists. split; [vm_compute; reflexivity|]. split; [reflexivity|].
  split; [vm_compute; repeat constructor|]. split; [vm_compute; intuition discriminate|].
  vm_compute. repeat split; reflexivity.
Qed.

(* the weaker form that holds of the parser model for ANY expression parser, scanner of
   quoted expressions and strconv.Unquote handed to it *)
Theorem C19_parse_error_inside :
  forall inlen lexq unq pexpr efuel fuel ts t c st,
    po_result (parse_file inlen lexq unq pexpr efuel fuel ts) = PErr t c st ->
    tok_inside inlen t c /\ forall src, 1 <= line_at src (t_pos t) <= lines src.
Proof.
  intros. split; [eapply parse_file_error_inside; eauto | intros; apply line_at_inside].
Qed.
Print Assumptions C19_parse_error_inside.

(* totality on bytes (Proofs/LexParseBridge.v soy_file_total_all, nested_scanner_at_base;
   composed in Proofs/ErrPosCompose.v): for EVERY byte string -- no hypothesis on the item list (floats_ok) or on the
   nested scanner (lexq_wf): the scanner model is its own nested scanner -- the scan returns items and the model of
   parse.SoyFile on them returns a tree or a positioned error, never the slice panic of lineNumber, never out of fuel;
   the error's token is the last or last-but-one item received from the file's scanner (with everything known of a
   scanned item), or from the scan that the scanner model started at base (lexExprAt) makes of a quoted expression *)
From Soy Require Import Proofs.ParserProofs Proofs.LexParseBridge Model.ParseBytes.
Open Scope N_scope.
Theorem C19_parse_error_position_all :
  forall ul ud, ul (-1)%Z = false -> ud (-1)%Z = false ->
  forall unq s,
    exists ts, lex_items ul ud (lex_budget s) false s = Ok ts /\
      let out := soy_file (N.of_nat (length s)) (lexq_model ul ud) unq ts in
      match po_result out with
      | POk _ _ => True
      | PErr t c st =>
          (is_prefix e_quoted c = false -> t_pos t <= N.of_nat (length s)) /\
          1 <= line_at s (t_pos t) <= lines s /\
          ((werr ts t st /\ item_facts ul ud s ts t) \/ c19_quoted_at ul ud (N.of_nat (length s)) t c (po_scans out))
      | PCrash _ | PFuel => False
      end.
Proof. exact c19_parse_error_position_all. Qed.
Print Assumptions C19_parse_error_position_all.

Theorem C19_parse_never_crashes :
  forall ul ud, ul (-1)%Z = false -> ud (-1)%Z = false ->
  forall unq s,
    exists ts, lex_items ul ud (lex_budget s) false s = Ok ts /\
      match po_result (soy_file (N.of_nat (length s)) (lexq_model ul ud) unq ts) with
      | POk _ _ => True
      | PErr t c _ => (is_prefix e_quoted c = false -> t_pos t <= N.of_nat (length s)) /\ 1 <= line_at s (t_pos t) <= lines s
      | PCrash _ | PFuel => False
      end.
Proof.
  intros ul ud Hl Hd unq s. destruct (c19_parse_error_position_all ul ud Hl Hd unq s) as (ts & Hlex & H).
  exists ts. split; [exact Hlex|]. cbv zeta in H.
  destruct (po_result (soy_file (N.of_nat (length s)) (lexq_model ul ud) unq ts)); try exact H.
  destruct H as (H1 & H2 & _). split; assumption.
Qed.
Print Assumptions C19_parse_never_crashes.

Theorem C19_line_at_monotone : forall src p q, p <= q -> line_at src p <= line_at src q.
Proof. exact line_at_monotone. Qed.
Print Assumptions C19_line_at_monotone.

(* `unexpected` reports at the token it is handed (repair bb87cc7) ... *)
Theorem C19_unexpected_reports_its_token :
  forall inlen A token ctx s r, @c_unexp inlen A token ctx s = r ->
    (t_pos token <= inlen -> exists cls, r = CErr token cls s) /\ (inlen < t_pos token -> r = CCrash e_pslice).
Proof. exact unexpected_reports_its_token. Qed.
Print Assumptions C19_unexpected_reports_its_token.

(* ... so that the P5 site -- textOrTag handed the scanner's error item -- reports that item ... *)
Theorem C19_text_or_tag_error_item :
  forall inlen lexq unq pexpr efuel pe w lf e until s,
    t_typ e = pit_Error -> one_of pit_Error until = false -> (p_peek (c_p s) <= 2)%nat -> t_pos e <= inlen ->
    exists s', text_or_tag inlen lexq unq pexpr efuel pe w (S lf) e until s = CErr e e_lexical s'.
Proof. exact text_or_tag_error_item. Qed.
Print Assumptions C19_text_or_tag_error_item.

(* ... whereas errorf's "current token" after textOrTag's look-ahead past the last item is the zero
   item of the closed channel: line 1, column 0 (ledger P5, the pinned behaviour) *)
Theorem C19_P5_lookahead_past_the_end :
  forall e,
    let s := pst_init [e] in
    let '(t1, s1) := p_next s in
    let '(t2, s2) := p_next s1 in
    t1 = e /\ err_tok (p_backup s2) = zero_tok /\
    forall src, line_at src (t_pos zero_tok) = 1 /\ col_at src (t_pos zero_tok) = 0.
Proof. exact P5_lookahead_past_the_end. Qed.
Print Assumptions C19_P5_lookahead_past_the_end.

(* the scanner, for every configuration in the text state / inside a tag; base is l.base: 0 for lex and
   lexExpr, the offset of the quoted expression in the enclosing file for lexExprAt (/repo 228b3d2) *)
Theorem C19_stray_brace :
  forall ul ud inp base, (0 <= base)%Z -> forall fuel l txt rest,
    Forall plain txt -> (0 <= l_pos l)%Z ->
    drop (Z.to_nat (l_pos l)) inp = txt ++ 125 :: rest ->
    exists l', run ul ud inp (Z.of_nat (length inp)) base (S fuel) LText l = Ok l' /\
               l_out l' = err_item (base + l_pos l + Z.of_nat (length txt) + 1) e_close_brace :: l_out l.
Proof. exact stray_brace. Qed.
Print Assumptions C19_stray_brace.

Theorem C19_illegal_char :
  forall ul ud inp base, (0 <= base)%Z -> forall ws fuel l c rest,
    Forall space_byte ws -> (0 <= l_pos l)%Z ->
    drop (Z.to_nat (l_pos l)) inp = ws ++ c :: rest -> c < 128 -> reaches_default (Z.of_N c) = true ->
    exists l', run ul ud inp (Z.of_nat (length inp)) base (length ws + S fuel) LInsideTag l = Ok l' /\
               l_out l' = err_item (base + l_pos l + Z.of_nat (length ws) + 1) e_bad_char :: l_out l.
Proof. exact illegal_char. Qed.
Print Assumptions C19_illegal_char.

Theorem C19_stray_brace_line :
  forall pre post, line_at (pre ++ 125 :: post) (N.of_nat (length pre) + 1) = 1 + count_nl pre.
Proof. exact stray_brace_line. Qed.
Print Assumptions C19_stray_brace_line.

Theorem C19_illegal_char_line :
  forall pre c post, c <> 10 -> line_at (pre ++ c :: post) (N.of_nat (length pre) + 1) = 1 + count_nl pre.
Proof. exact illegal_char_line. Qed.
Print Assumptions C19_illegal_char_line.

(* unterminated constructs: whenever the scan of a block comment / a string ends the whole scan, the
   last item sent is the error item at the END of the input, and a tag that meets the end of the
   input reports there too; that line is the last line and is not before the line of any earlier
   position (where the construct was opened) *)
Theorem C19_block_comment_error_at_end :
  forall inp base, (0 <= base)%Z -> forall fuel star l l',
    (0 <= l_pos l <= Z.of_nat (length inp))%Z ->
    block_comment_loop inp (Z.of_nat (length inp)) base fuel star l = Ok (LDone, l') ->
    l_out l' = err_item (base + Z.of_nat (length inp)) e_comment_eof :: l_out l.
Proof. exact block_comment_error_at_end. Qed.
Print Assumptions C19_block_comment_error_at_end.

Theorem C19_string_error_at_end :
  forall inp base, (0 <= base)%Z -> forall fuel q l l',
    (0 <= l_pos l <= Z.of_nat (length inp))%Z ->
    string_loop inp (Z.of_nat (length inp)) base fuel q l = Ok (LDone, l') ->
    l_out l' = err_item (base + Z.of_nat (length inp)) e_string_eof :: l_out l.
Proof. exact string_error_at_end. Qed.
Print Assumptions C19_string_error_at_end.

Theorem C19_unclosed_tag_at_end :
  forall inp base, (0 <= base)%Z -> forall l, (0 <= l_pos l)%Z -> (Z.of_nat (length inp) <= l_pos l)%Z ->
    exists l', lex_inside_tag inp (Z.of_nat (length inp)) base l = Ok (LDone, l') /\
               l_out l' = err_item (base + l_pos l) e_unclosed_tag :: l_out l.
Proof. exact unclosed_tag_at_end. Qed.
Print Assumptions C19_unclosed_tag_at_end.

Theorem C19_end_of_input_line :
  forall src opened, opened <= N.of_nat (length src) ->
    line_at src (N.of_nat (length src)) = lines src /\ line_at src opened <= line_at src (N.of_nat (length src)).
Proof. exact end_of_input_line. Qed.
Print Assumptions C19_end_of_input_line.

(* unknown command {foo $x}: the token after the expression that is neither `}` nor `|` is reported *)
Theorem C19_print_trailing_token_reported :
  forall inlen pe lf f pos e dirs s tok s1,
    c_next s = COk tok s1 -> tis tok pit_RightDelim = false -> tis tok pit_Pipe = false -> t_pos tok <= inlen ->
    exists cls, cmd_print_loop inlen pe lf (S f) pos e dirs s = CErr tok cls s1.
Proof. exact print_trailing_token_reported. Qed.
Print Assumptions C19_print_trailing_token_reported.

(* scanner model and parser model COMPOSED, for all inputs of one shape: plain ASCII text (any number
   of lines) followed by a stray } and anything whatsoever after it -- the model of parse.SoyFile
   returns the lexical error positioned at the scanner's error item, whose line is the brace's line *)
Theorem C19_stray_brace_end_to_end :
  forall ul ud lexq unq fuel txt rest,
    Forall plain txt ->
    let s := txt ++ 125 :: rest in
    let e := err_item (Z.of_nat (length txt) + 1) e_close_brace in
    lex_items ul ud (S fuel) false s = Ok [e] /\
    (exists st, po_result (soy_file (N.of_nat (length s)) lexq unq [e]) = PErr e e_lexical st) /\
    line_at s (t_pos e) = 1 + count_nl txt.
Proof. exact stray_brace_end_to_end. Qed.
Print Assumptions C19_stray_brace_end_to_end.

(* End to end, scanner model + parser model: a stray } on line 5, an illegal character in a tag on
   line 5, end of input inside a template, an unclosed block comment, an unknown command {foo $x} --
   the reported token's line is 5, 5, 6, 8 and 5 (not 1). *)
Definition ex_parse (s : bstr) : option (N * N * N) :=
  match lex_items_tbl false s with
  | Ok (ts, _) =>
      match po_result (soy_file (N.of_nat (length s)) (fun _ => []) (fun _ => None) ts) with
      | PErr t _ _ => Some (t_typ t, line_at s (t_pos t), col_at s (t_pos t))
      | _ => None
      end
  | _ => None
  end.
Definition ex_file (line5 : bstr) : bstr :=
  Eval vm_compute in b "{namespace a}

/** doc */
{template .t}
" ++ line5.
Example C19_parse_nonvacuous :
  ex_parse (ex_file (b "x } y
{/template}
")) = Some (pit_Error, 5, 4)
  /\ ex_parse (ex_file (b "{$a ^ 1}
{/template}
")) = Some (pit_Error, 5, 6)
  /\ ex_parse (ex_file (b "hello
")) = Some (pit_EOF, 6, 1)
  /\ ex_parse (ex_file (b "a /* abc
b
{/template}
")) = Some (pit_Error, 8, 1)
  /\ ex_parse (ex_file (b "{foo $x}
{/template}
")) = Some (pit_DollarIdent, 5, 8).
Proof. vm_compute. repeat split; reflexivity. Qed.

(* With the scanner invariant of Proofs/LexerProofs.v (lex_items_pos_le): every item the
   scanner sends lies inside the input, so `unexpected` about a scanner item never trips over
   lineNumber's slice: it returns the error positioned at that item, whose line is inside the file. *)
From Soy Require Import Proofs.LexerProofs.
Open Scope N_scope.
Theorem C19_unexpected_on_scanner_item :
  forall ul ud, ul (-1)%Z = false -> ud (-1)%Z = false ->
  forall fuel mode s ts, lex_items ul ud fuel mode s = Ok ts ->
  forall t, In t ts ->
    t_pos t <= N.of_nat (length s) /\ 1 <= line_at s (t_pos t) <= lines s /\
    forall A ctx st, exists cls, @c_unexp (N.of_nat (length s)) A t ctx st = CErr t cls st.
Proof.
  intros ul ud Hl Hd fuel mode s ts Hlex t Hin.
  pose proof (lex_items_pos_le ul ud Hl Hd fuel mode s ts Hlex) as Hall.
  rewrite Forall_forall in Hall. specialize (Hall t Hin).
  split; [exact Hall|]. split; [apply line_at_inside|].
  intros A ctx st. destruct (unexpected_reports_its_token (N.of_nat (length s)) A t ctx st _ eq_refl) as [H _].
  exact (H Hall).
Qed.
Print Assumptions C19_unexpected_on_scanner_item.
