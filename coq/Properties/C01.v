(* C01 -- Expressions evaluate exactly as the Soy language defines.  Property theorems only.

   Spec: Spec/Expr.v (eval_spec: the expression language over its own syntax, written from the
   language description).  Model: Model/Interp.v (the tree walker of soyhtml/exec.go, funcs.go),
   Model/ExprTrans.v (to_node: the tree the parser builds for a Spec expression; tied to the real
   parser by the harness).  Proofs: Proofs/EvalProofs.v, EvalFuncProofs.v, EvalMainProofs.v
   (evaluation), EvalTotalProofs.v (outcomes of the Spec evaluator), EvalSyntaxProofs.v,
   EvalTextProofs.v, InterpPos.v (composition with the syntax half, at token and character level).

   EVALUATION half (this file): for every expression tree the walker computes what the Spec says.
   SYNTAX half, token level: parse_show of Proofs/ExprParserProofs.v --
   the model of parse.go's precedence-climbing parser reads the tokens of any well-formed tree,
   written with the parentheses the operator table requires plus any redundant ones, back as that
   tree -- cited below and composed with the evaluation half (C01_text_to_value).  Character level:
   C01_text_string_to_value composes the scanner model (Model/Lexer.v lexExpr: unary-minus
   classification by lastEmit, number and string scanning, identifiers, every operator) with the
   parser model on the STRING ast/node.go prints for the expression (minimal parentheses, the
   printer's spacing); strings written otherwise (redundant parentheses, other spacing, the
   statement-level contexts `{if ...}`, `{let $x: ...}` ...) have no string-level theorem and stay
   covered by the end-to-end oracle of go/cmd/soyverif/c01.go (expected output from the Spec on the
   generator's TREE; the parser's tree compared with to_node).

   Value laws the statement names (truthiness table, equality by kind, Int/Float numerically,
   collections by identity): Properties/C20.v (C20_truthy_table, C20_equals_sym,
   C20_equals_numeric, C20_equals_kinds, C20_equals_refl_scalars) -- eval_spec uses those very
   functions. *)
(* source tie by translation: the lemmas of these files are obligations of this property *)
From Soy Require Import Proofs.SourceTieExpr Proofs.SourceTieQuote Proofs.SourceTieData Proofs.SourceTieHtml Proofs.SourceTieScope Proofs.SourceTieUnquote.
From Soy Require Import Model.Bytes Model.Num Model.Values Model.Outcome Model.Ast Model.Interp
  Model.Escape Model.Token Model.ExprParser Model.ExprTrans Spec.Expr Spec.ExprSyntax Generated.Tables
  Proofs.EvalProofs Proofs.EvalFuncProofs Proofs.EvalMainProofs Proofs.ExprParserRules Proofs.ExprParserProofs Proofs.EvalSyntaxProofs Proofs.EvalTotalProofs.
From Soy Require Import Model.AstPrint Model.Lexer Model.Parser Proofs.LexPrintMain Proofs.LexParseText Proofs.EvalTextProofs Proofs.InterpPos.
From Soy Require Proofs.FloatRoundSpec Proofs.FloatFlocq Proofs.FloatFlocqDiv Proofs.FloatRtMain Proofs.FloatRtPrint Proofs.FloatRtLex.
Open Scope N_scope.

(* ---- the evaluator ---- *)

(* For EVERY expression tree [e] (unbounded; every literal, list/map literal, global, data
   reference with . / [ ] / null-safe accesses, $ij, call of a built-in function, unary minus, not,
   the thirteen binary operators, ?: and the ternary), every walker state [st] -- the environment
   is its scope stack flattened -- every injected data [ij] and every fuel >= the nesting depth:
   if the Spec gives the value v, the walker on to_node e returns exactly v (identities of the
   lists/maps created on the way counted from the same next_id, and the same next_id afterwards);
   if the Spec gives no value, the walker returns an error.  In both cases the walker has written
   nothing and left scope, mode and writer untouched (frame_eq).
   Guard: the Spec's third outcome OutOfModel (an integer result outside int64, randomInt's value,
   round with digits <> 0, an int beyond 2^53 used as a float, a float beyond the exponent range of
   the model, round/floor/ceiling/min/max where their exact computation is not a binary64) is outside
   the statement -- an inexact result of + - * / is NOT: both sides round it to the nearest binary64,
   ties to even (Num.fl_add_r ...); wf_expr: distinct keys in a map literal, referenced globals
   defined, "$ij" is EIj. *)
Theorem C01_eval_impl_spec : forall G ij cf fuel e st,
  c_ij cf = ij -> ExprTrans.wf_expr G e = true -> (height e <= fuel)%nat ->
  (forall v n', eval_spec G (flatten (ctx st)) ij e (next_id st) = Ok (v, n') ->
     exists st', walk cf fuel (to_node G e) st = (Ok v, st') /\ frame_eq st st' /\ next_id st' = n') /\
  (forall m, eval_spec G (flatten (ctx st)) ij e (next_id st) = Err m ->
     exists msg st', walk cf fuel (to_node G e) st = (Err msg, st') /\ frame_eq st st').
Proof. exact eval_impl_spec. Qed.
Print Assumptions C01_eval_impl_spec.

(* ... and these are all the Spec's outcomes but one: eval_spec yields a value, no value, or
   OutOfModel (never Crash / Diverge / OutOfFuel), so OutOfModel is exactly what the theorem leaves out *)
Theorem C01_spec_outcomes : forall G env ij e n,
  (exists v n', eval_spec G env ij e n = Ok (v, n')) \/ (exists m, eval_spec G env ij e n = Err m) \/
  eval_spec G env ij e n = OutOfModel.
Proof. exact eval_spec_trichotomy. Qed.
Print Assumptions C01_spec_outcomes.

(* the built-in functions alone: apply_func (funcs.go) against their documented meaning, for every
   function and EVERY argument list (any length, any kinds) *)
Theorem C01_functions : forall f args,
  orel (r <- apply_fn_spec f args ;; Ok (fres_of r)) (apply_func (fn_name f) args).
Proof. exact apply_rel. Qed.
Print Assumptions C01_functions.

(* the Spec's arity table is the one tablegen reads from soyhtml.Funcs on every run, and no
   built-in is a loop function *)
Theorem C01_function_table : forall f,
  func_arities (fn_name f) = Some (map N.of_nat (fn_arities f)) /\
  fn_is (fn_name f) n_index || fn_is (fn_name f) n_isFirst || fn_is (fn_name f) n_isLast = false.
Proof. intros f; split; [apply fn_arities_table | apply fn_not_loop]. Qed.
Print Assumptions C01_function_table.

(* ... and the converse: the table regenerated from soyhtml.Funcs on this run holds NO other name.  Every
   name the interpreter can call (func_arities name = Some ar) is a function of the Spec (fn_of_name finds
   it) with the Spec's arities, and on every argument list apply_func behaves as that function's Spec.
   A function added to soyhtml.Funcs without a Spec in Spec/Expr.v, or a changed arity, breaks the
   finite computation behind this theorem (EvalFuncProofs.html_funcs_specified). *)
Theorem C01_function_table_complete : forall name ar args,
  func_arities name = Some ar ->
  exists f, fn_of_name name = Some f /\ fn_name f = name /\ ar = map N.of_nat (fn_arities f) /\
            orel (r <- apply_fn_spec f args ;; Ok (fres_of r)) (apply_func name args).
Proof. exact function_table_spec. Qed.
Print Assumptions C01_function_table_complete.

Example C01_function_table_nonvacuous :
  func_arities (b "range") = Some [1; 2; 3] /\ fn_of_name (b "range") = Some FRange /\ fn_of_name (b "index") = None /\
  length html_funcs = length all_fns.
Proof. vm_compute. repeat split; reflexivity. Qed.

(* ---- syntax (cited) and the composition ---- *)

(* precedence and associativity with minimal and redundant parentheses: for every well-formed tree
   e (Spec/ExprSyntax.v), every parenthesis style sty and every following item t that cannot
   continue an expression, the parser model reads [show sty path e] back as e and stops before t *)
Theorem C01_parse_show : forall sty path e (t : tok) (rest : list tok),
  ExprSyntax.wf_expr e -> closer t = true ->
  exists st' f0, stream st' = t :: rest /\
    forall f, (f0 <= f)%nat -> parse_expr_top f (show sty path e ++ t :: rest) = POk e st'.
Proof. exact parse_show_top. Qed.
Print Assumptions C01_parse_show.

(* an implicit print can start with any expression: the first item of the token sequence of every Spec
   expression (any parenthesis style, any number kk of enclosing parentheses) is one of the eleven
   item types that start an expression (the command-level parser's beginTag case list; its tie to the
   Go source is the parser correspondence of C17/C05) -- cited from Proofs/ExprParserProofs.v *)
Theorem C01_implicit_print_start : forall sty e path kk, syntax_ok e ->
  exists x l, parens kk (show sty path (to_node [] e)) = x :: l /\ mem (t_typ x) expr_start_types = true.
Proof. intros sty e path kk H. exact (show_starts_expression sty (to_node [] e) (src_wf e H) path kk). Qed.
Print Assumptions C01_implicit_print_start.

(* tokens -> tree -> compiled tree -> value: for every Spec expression with a concrete syntax, its
   token sequence (any parenthesis style) parses to to_node [] e, SetNodeGlobals makes it
   to_node G e, and the walker evaluates that to what the Spec says *)
Theorem C01_text_to_value : forall G ij cf sty path e (t : tok) (rest : list tok) fuel st,
  syntax_ok e -> ExprTrans.wf_expr G e = true -> closer t = true ->
  c_ij cf = ij -> (height e <= fuel)%nat ->
  exists st' f0, stream st' = t :: rest /\
    (forall f, (f0 <= f)%nat -> parse_expr_top f (show sty path (to_node [] e) ++ t :: rest) = POk (to_node [] e) st') /\
    (forall v n', eval_spec G (flatten (ctx st)) ij e (next_id st) = Ok (v, n') ->
       exists st2, walk cf fuel (set_globals G (to_node [] e)) st = (Ok v, st2) /\ frame_eq st st2 /\ next_id st2 = n') /\
    (forall m, eval_spec G (flatten (ctx st)) ij e (next_id st) = Err m ->
       exists msg st2, walk cf fuel (set_globals G (to_node [] e)) st = (Err msg, st2) /\ frame_eq st st2).
Proof. exact text_to_value. Qed.
Print Assumptions C01_text_to_value.

(* string -> items -> tree -> compiled tree -> value, with the REAL scanner model instead of a token
   hypothesis: for every Spec expression with a concrete syntax whose identifiers and literals are lexically
   well-formed ([lex_ok]: ASCII names that are not keywords, string literals in the printer's quoted form,
   float texts of the printed shape), the string [txt] that ast/node.go's String() writes for it is scanned
   (lexExpr model, unicode tables of the toolchain) and parsed (parse.Expr model under its own budget) to a
   tree e' that IS to_node [] e once node positions are erased; and the walker, run on SetNodeGlobals of the
   parser's OWN tree e' (positions and all), returns the Spec's value with the Spec's next identity, or an
   error when the Spec has no value; in both cases scope, mode, writer are untouched. *)
Theorem C01_text_string_to_value : forall G ij cf e txt fuel st,
  syntax_ok e -> lex_ok (to_node [] e) -> print_node (to_node [] e) = Some txt ->
  ExprTrans.wf_expr G e = true -> c_ij cf = ij -> (height e <= fuel)%nat ->
  exists e' st', parse_expr_string is_letter_tbl is_digit_tbl txt = Ok (POk e' st') /\ strip_pos e' = to_node [] e /\
    (forall v n', eval_spec G (flatten (ctx st)) ij e (next_id st) = Ok (v, n') ->
       exists st2, walk cf fuel (set_globals G e') st = (Ok v, st2) /\ frame_eq st st2 /\ next_id st2 = n') /\
    (forall m, eval_spec G (flatten (ctx st)) ij e (next_id st) = Err m ->
       exists msg st2, walk cf fuel (set_globals G e') st = (Err msg, st2) /\ frame_eq st st2).
Proof. exact text_string_to_value_full. Qed.
Print Assumptions C01_text_string_to_value.

(* what makes the step from the position-free tree to the parser's tree possible: on an expression tree the
   walker uses node positions for s.node only -- erasing them changes neither the outcome nor any field of the
   final state other than [cur] (the position an error would be reported at); and on EVERY node the walker
   takes states that differ in [cur] alone to the same outcome and to states that differ in [cur] alone *)
Theorem C01_walker_ignores_positions : forall cf fuel n st, InterpPos.expr_tree n = true ->
  fst (walk cf fuel n st) = fst (walk cf fuel (strip_pos n) st) /\
  InterpPos.eqc (snd (walk cf fuel n st)) (snd (walk cf fuel (strip_pos n) st)).
Proof. exact InterpPos.walk_strip_run. Qed.
Print Assumptions C01_walker_ignores_positions.

(* ---- printing ---- *)

(* printing an expression whose value is undefined is an error and writes nothing *)
Theorem C01_print_undefined_errors : forall G ij cf, c_ij cf = ij -> forall fuel e p dirs st n',
  ExprTrans.wf_expr G e = true -> (height e <= fuel)%nat ->
  eval_spec G (flatten (ctx st)) ij e (next_id st) = Ok (VUndef, n') ->
  exists msg st', walk cf (S fuel) (NPrint p (to_node G e) dirs) st = (Err msg, st') /\
                  out st' = out st /\ bufs st' = bufs st.
Proof. exact print_undefined_errors. Qed.
Print Assumptions C01_print_undefined_errors.

(* an expression the language leaves without a value makes the print an error; no text is written for it *)
Theorem C01_no_text_on_error : forall G ij cf, c_ij cf = ij -> forall fuel e p dirs st m,
  ExprTrans.wf_expr G e = true -> (height e <= fuel)%nat ->
  eval_spec G (flatten (ctx st)) ij e (next_id st) = Err m ->
  exists msg st', walk cf (S fuel) (NPrint p (to_node G e) dirs) st = (Err msg, st') /\
                  out st' = out st /\ bufs st' = bufs st.
Proof. exact no_text_on_error. Qed.
Print Assumptions C01_no_text_on_error.

(* a print without directives of an expression that has a printable value appends exactly the
   value's string image, html-escaped unless the template's autoescape mode is off *)
Theorem C01_print_renders_spec : forall G ij cf, c_ij cf = ij -> forall fuel e p st v n' s,
  ExprTrans.wf_expr G e = true -> (height e <= fuel)%nat -> c_oblig cf = [] ->
  bufs st = [] -> calls_left st = None -> bytes_left st = None ->
  eval_spec G (flatten (ctx st)) ij e (next_id st) = Ok (v, n') -> v <> VUndef ->
  value_string v = Ok s ->
  exists st', walk cf (S fuel) (NPrint p (to_node G e) []) st = (Ok VUndef, st') /\
              concat_b (rev (out st')) = concat_b (rev (out st)) ++ (if mode st =? 2 then s else html_escape s).
Proof. exact print_renders_spec. Qed.
Print Assumptions C01_print_renders_spec.

(* ---- the Spec reads like the statement (direct consequences of Spec/Expr.v) ---- *)

(* and / or yield booleans and do not evaluate the right operand when the left decides *)
Theorem C01_and_short_circuit : forall G env ij a c n x n1,
  eval_spec G env ij a n = Ok (x, n1) -> truthy x = false ->
  eval_spec G env ij (EBin BAnd a c) n = Ok (VBool false, n1).
Proof. intros G env ij a c n x n1 E T. cbn [eval_spec]. unfold rbind. rewrite E, T. reflexivity. Qed.

Theorem C01_or_short_circuit : forall G env ij a c n x n1,
  eval_spec G env ij a n = Ok (x, n1) -> truthy x = true ->
  eval_spec G env ij (EBin BOr a c) n = Ok (VBool true, n1).
Proof. intros G env ij a c n x n1 E T. cbn [eval_spec]. unfold rbind. rewrite E, T. reflexivity. Qed.

(* ?: keeps the left operand unless it is null or undefined, and then does not evaluate the right one *)
Theorem C01_elvis_left : forall G env ij a c n x n1,
  eval_spec G env ij a n = Ok (x, n1) -> x <> VNull -> x <> VUndef ->
  eval_spec G env ij (EElvis a c) n = Ok (x, n1).
Proof.
  intros G env ij a c n x n1 E H1 H2. cbn [eval_spec]. unfold rbind. rewrite E.
  destruct x; try reflexivity; contradiction.
Qed.

(* + : two integers add; a string on either side concatenates the string images *)
Theorem C01_plus : forall x y a c s1 s2,
  sem_strict BAdd (VInt x) (VInt y) = int_result (x + y) /\
  (value_string a = Ok s1 -> value_string (VStr s2) = Ok s2 ->
   sem_strict BAdd a (VStr s2) = Ok (VStr (s1 ++ s2)) /\
   (value_string c = Ok s1 -> sem_strict BAdd (VStr s2) c = Ok (VStr (s2 ++ s1)))).
Proof.
  intros x y a c s1 s2. split; [reflexivity|]. intros Ha Hs. split.
  - unfold sem_strict, sem_add. destruct a; rewrite Ha, Hs; reflexivity.
  - intros Hc. unfold sem_strict, sem_add. rewrite Hc, Hs. reflexivity.
Qed.

(* / is always a float; % is defined on integers with a non-zero divisor only *)
Theorem C01_div_mod : forall a c v,
  (sem_strict BDiv a c = Ok v -> exists f, v = VFloat f) /\
  (sem_strict BMod a c = Ok v -> exists x y, a = VInt x /\ c = VInt y /\ y <> 0%Z /\ v = VInt (Z.rem x y)).
Proof.
  intros a c v. split.
  - cbn [sem_strict]. unfold sem_div. destruct (number_of a); cbn; try discriminate.
    destruct (number_of c); cbn; try discriminate. destruct (fl_div_r v0 v1); cbn; try discriminate.
    intros [= <-]. eauto.
  - cbn [sem_strict]. unfold sem_mod, no_value. destruct a; try discriminate. destruct c; try discriminate.
    destruct (Z.eqb_spec z0 0); [discriminate|]. unfold int_result.
    destruct (in_int64 (Z.rem z z0)); [|discriminate]. intros [= <-]. exists z, z0. auto.
Qed.

(* ordering is defined on numbers only *)
Theorem C01_order_numbers_only : forall op a c v,
  match op with BLt | BGt | BLe | BGe => True | _ => False end ->
  sem_strict op a c = Ok v ->
  (exists x, number_of a = Ok x) /\ (exists y, number_of c = Ok y) /\ exists r, v = VBool r.
Proof.
  intros op a c v Hop E.
  assert (H : sem_order op a c = Ok v) by (destruct op; try contradiction; exact E).
  unfold sem_order in H.
  destruct (number_of a) as [x| | | | |]; cbn [bind] in H; try discriminate.
  destruct (number_of c) as [y| | | | |]; cbn [bind] in H; try discriminate.
  injection H as <-. split; [eauto | split; eauto].
Qed.

(* ---- the float domain: rounding, printing, reading back (Proofs/FloatRoundSpec.v, FloatFlocq.v, FloatRt*.v) ---- *)
(* Num.round53 -- the rounding step of + - * / and of the conversion of an integer -- returns the multiple of the
   last place kept that is nearest to the exact result, the even mantissa at a tie, with 53 bits (integers only) *)
Theorem C01_round_nearest_even : forall M E : Z,
  let '(m, e) := round53 M E in
  exists sh, (0 <= sh /\ e = E + sh /\
    2 * Z.abs (M - m * 2 ^ sh) <= 2 ^ sh /\
    (2 * Z.abs (M - m * 2 ^ sh) = 2 ^ sh -> Z.even m = true) /\
    Z.abs m <= 2 ^ 53 /\ (0 < sh -> 2 ^ 52 <= Z.abs m) /\ (sh = 0 -> m = M))%Z.
Proof. exact FloatRoundSpec.round53_spec. Qed.
Print Assumptions C01_round_nearest_even.

(* the same against Flocq (a statement over the reals: Print Assumptions lists the axioms of Coq's Reals and
   Classical_Prop.classic, nothing of Flocq's own): round53 is round radix2 (FLX_exp 53) ZnearestE, and the results of
   fl_add_r, fl_sub_r, fl_mul_r, fl_of_int are that rounding of the exact sum, difference, product, integer
   (FloatFlocq.ff_correctly_rounded spells the five statements out) *)
Theorem C01_float_ops_correctly_rounded : FloatFlocq.ff_correctly_rounded.
Proof. exact FloatFlocq.ff_correctly_rounded_holds. Qed.
Print Assumptions C01_float_ops_correctly_rounded.

(* and fl_div_r -- the quotient to 56 or more bits with a sticky bit for the remainder, then round53 -- is that rounding of
   the exact quotient (FloatFlocqDiv.v, through Flocq's Fdiv_core: mantissas non-zero, as in every FFin of the model) *)
Theorem C01_float_div_correctly_rounded : FloatFlocqDiv.ff_div_correctly_rounded.
Proof. exact FloatFlocqDiv.ff_div_correctly_rounded_holds. Qed.
Print Assumptions C01_float_div_correctly_rounded.

(* strconv 'g' -1 (Num.fl_to_string) answers on every float of the model, and strconv.ParseFloat's correctly rounded
   conversion (NumLit.parse_float_round) reads the text back as the same float: syntax_ok has no hypothesis about
   floats beyond their shape (float_ok f is the shape condition fl_in_window f) *)
Theorem C01_float_text_roundtrip : forall x, FloatRtMain.fl_in_window x ->
  exists s, fl_to_string x = Some s /\ NumLit.parse_float_round s = NumLit.FRVal x.
Proof.
  intros x H. destruct (FloatRtMain.fl_to_string_total x H) as (s & Hs). exists s. split; [exact Hs|].
  exact (FloatRtMain.fl_to_string_roundtrip x s (FloatRtMain.rt_window_norm x H) Hs).
Qed.
Print Assumptions C01_float_text_roundtrip.

Theorem C01_float_literal_condition : forall f, float_ok f <-> FloatRtMain.fl_in_window f.
Proof. exact FloatRtPrint.float_ok_iff_window. Qed.
Print Assumptions C01_float_literal_condition.

(* and lex_ok's float clause (the printed text is one float item for the scanner) holds for every such float: neither
   syntax_ok nor lex_ok of C01_text_string_to_value restricts the floats of an expression beyond their shape *)
Theorem C01_float_lex_ok : forall p f, float_ok f -> LexPrintMain.lex_ok (NFloat p f).
Proof. intros p f [Hn _]. exact (FloatRtLex.lex_ok_float p f Hn). Qed.
Print Assumptions C01_float_lex_ok.

(* ---- non-vacuity: concrete instances evaluated by both sides ---- *)
Definition ex_env : list (bstr * value) :=
  [(b "a", VInt 2); (b "l", VList 5 [VStr (b "p"); VStr (b "q<")]); (b "m", VMap 6 [([], VInt 7); (b "k", VNull)])].

(* ($a + 2) * 3 < 10 ? null : 'x' + $l[1] + $m[''] + [1.5, $m?.k?.z]   -->   "xq<7[1.5, null]" *)
Definition ex_expr : expr :=
  ETern (EBin BLt (EBin BMul (EBin BAdd (ERef (b "a") []) (EInt 2)) (EInt 3)) (EInt 10))
        ENull
        (EBin BAdd (EBin BAdd (EBin BAdd (EStr (b "x")) (ERef (b "l") [AExpr false (EInt 1)]))
                              (ERef (b "m") [AExpr false (EStr [])]))
                   (EList [EFloat (FFin 3 (-1)); ERef (b "m") [AKey true (b "k"); AKey true (b "z")]])).

Example C01_nonvacuous_value :
  ExprTrans.wf_expr [] ex_expr = true /\ (height ex_expr <= 6)%nat /\
  eval_spec [] ex_env None ex_expr 100 = Ok (VStr (b "xq<7[1.5, null]"), 101) /\
  impl_eval [] ex_env None 6 ex_expr 100 = Ok (VStr (b "xq<7[1.5, null]"), 101).
Proof. repeat split; vm_compute; reflexivity. Qed.

Example C01_nonvacuous_syntax : syntax_ok ex_expr.
Proof.
  cbn [syntax_ok ex_expr allP acc_ok]. unfold float_ok, key_ok.
  repeat match goal with
         | |- _ /\ _ => split
         | |- True => exact I
         | |- exists _, _ => eexists
         | |- fl_finite_norm _ => vm_compute; reflexivity
         | |- _ = _ => vm_compute; reflexivity
         end.
Qed.

(* 1 < 'a' has no value; neither has $l[0].x (a non-collection), nor length(3); $l[5] is undefined *)
Example C01_nonvacuous_errors :
  (exists m, eval_spec [] ex_env None (EBin BLt (EInt 1) (EStr (b "a"))) 100 = Err m) /\
  (exists m, impl_eval [] ex_env None 3 (EBin BLt (EInt 1) (EStr (b "a"))) 100 = Err m) /\
  (exists m, eval_spec [] ex_env None (ERef (b "l") [AIdx false 0; AKey false (b "x")]) 100 = Err m) /\
  (exists m, eval_spec [] ex_env None (ECall FLength [EInt 3]) 100 = Err m) /\
  eval_spec [] ex_env None (ERef (b "l") [AExpr false (EInt 5)]) 100 = Ok (VUndef, 100) /\
  eval_spec [] ex_env None (ERef (b "l") [AExpr false (EInt (-1))]) 100 = Ok (VUndef, 100) /\
  print_spec [] ex_env None (ERef (b "l") [AExpr false (EInt 5)]) 100 = Err e_novalue.
Proof. repeat split; try (eexists; vm_compute; reflexivity); vm_compute; reflexivity. Qed.

(* identity: two evaluations of a list literal are different lists, a bound list is itself *)
Example C01_nonvacuous_identity :
  eval_spec [] ex_env None (EBin BEq (EList [EInt 1]) (EList [EInt 1])) 100 = Ok (VBool false, 102) /\
  eval_spec [] ex_env None (EBin BEq (ERef (b "l") []) (ERef (b "l") [])) 100 = Ok (VBool true, 100) /\
  eval_spec [] ex_env None (EBin BEq (EInt 2) (EFloat (FFin 1 1))) 100 = Ok (VBool true, 100) /\
  eval_spec [] ex_env None (EBin BEq (EStr (b "2")) (EInt 2)) 100 = Ok (VBool false, 100).
Proof. repeat split; vm_compute; reflexivity. Qed.

(* text level, by computation: the printed string of ex_expr, scanned and parsed by the models, is its tree *)
Example C01_nonvacuous_text :
  print_node (to_node [] ex_expr) = Some (b "($a + 2) * 3 < 10 ? null : 'x' + $l[1] + $m[''] + [1.5, $m?.k?.z]") /\
  match print_node (to_node [] ex_expr) with
  | Some txt => match parse_expr_string is_letter_tbl is_digit_tbl txt with
                | Ok (POk e' _) => strip_pos e' = to_node [] ex_expr
                | _ => False
                end
  | None => False
  end.
Proof. split; vm_compute; reflexivity. Qed.
