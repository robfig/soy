(* C17 -- a printed expression parses back to the same expression.

   Models: Model/ExprParser.v (parse/parse.go's expression parser and parsePrint, over the
   token plumbing of Model/Token.v), Model/AstPrint.v (the String methods of ast/node.go after
   the repairs a67ff8b a61ee13 980bf96 418294b 94b42ac), Model/Quote.v, Model/NumLit.v.
   Spec: Spec/ExprSyntax.v ([tokens_of e] = the items the printed text of [e] lexes to;
   [wf_expr] excludes only trees without concrete syntax).

   Token level: the theorems hold for every well-formed tree (no bound on size or nesting).
   Text level (C17_text_roundtrip, C17_text_injective below): the scanner model of parse/lexer.go
   (Model/Lexer.v, lexExpr) on the string the printer model writes sends the items of [tokens_of e]
   (Proofs/LexPrintTop.v), the parser model does not look at item positions (Proofs/ExprParserStrip.v) and its
   result does not depend on the budget (Proofs/ExprParserFuel.v): string -> items -> the same tree up to
   node positions, for every tree that is well-formed and lexically well-formed ([lex_ok]: ASCII identifiers
   that are not keywords, string literals in the printer's own quoted form, float texts of the printed shape).
   Print COMMANDS at text level (C17_lex_print_command, C17_print_command_text_roundtrip,
   C17_print_command_text_injective, C17_placeholders_by_text_scanner): the scanner model in file mode on the
   string PrintNode.String() writes sends "{", the items of [tokens_of_print] and EOF (lexText at "{",
   lexLeftDelim, lexBeginTag, the expression and directive lists inside the tag, "}" -> lexRightDelim, lexText
   at the end of the input); the parsePrint model on these items returns the command up to positions.
   C17_print_command_file_roundtrip goes through the file entry point: the command-level dispatch of parse.SoyFile
   (itemList -> textOrTag -> beginTag's implicit-print case -> parsePrint) under the entry point's own budget. *)
(* source tie by translation: the lemmas of these files are obligations of this property *)
From Soy Require Import Proofs.SourceTieExpr Proofs.SourceTieQuote Proofs.SourceTieAstPrint Proofs.SourceTieUnquote.
From Soy Require Import Model.Bytes Model.Num Model.Values Model.Ast Model.Token Model.NumLit Model.Quote Model.ExprParser
  Model.AstPrint Generated.Tables Spec.ExprSyntax Proofs.ExprParserRules Proofs.LiteralProofs Proofs.ExprParserProofs Proofs.PlaceholderTextProofs Proofs.FloatRtPrint.
From Soy Require Proofs.FloatRtMain Proofs.FloatRtLex.
From Soy Require Import Model.Outcome Model.MsgId Proofs.MsgIdProofs.
From Soy Require Import Model.Lexer Model.Parser Proofs.LexerProofs Proofs.LexExpr Proofs.LexPrintTop Proofs.LexPrintMain Proofs.LexParseText Proofs.LexPrintCmd Proofs.PrintCmdText.
From Soy Require Import Proofs.ParserProofs Proofs.CmdParserFuel Proofs.PrintCmdFile.
From Soy Require Import Spec.LexKeyword Proofs.LexPrint Proofs.LexKeywordProofs.
From Soy Require Import Model.RawText Model.Parser Model.AstPrintCmd Spec.CmdSyntax Proofs.CmdRoundtripBase Proofs.CmdRoundtripRules Proofs.CmdRoundtrip Proofs.ExprParserMono Proofs.CmdParserStripDefs Proofs.CmdParserStripMain Proofs.CmdRoundtripStrip Proofs.LexBodyC17 Proofs.LexBodyC17Body Proofs.LexBodyC17Top Proofs.CmdRoundtripBytes Proofs.CmdRoundtripEof Proofs.CmdRoundtripFile Proofs.LexTokens Proofs.LexExpr.
Open Scope N_scope.

(* Parsing the items of the printed expression gives back the expression itself (positions
   included: every item carries the position of the node it creates), for every fuel above
   some bound, and leaves exactly the items that follow the expression. *)
Theorem C17_parse_print_roundtrip : forall e t rest,
  wf_expr e -> closer t = true ->
  exists st' f0, stream st' = t :: rest /\
    forall f, (f0 <= f)%nat -> parse_expr_top f (tokens_of e ++ t :: rest) = POk e st'.
Proof. exact parse_print_roundtrip. Qed.
Print Assumptions C17_parse_print_roundtrip.

(* Two expressions print the same items (up to positions) only if they are the same
   expression (up to positions). *)
Theorem C17_print_injective : forall e1 e2,
  wf_expr e1 -> wf_expr e2 ->
  map strip_tok (tokens_of e1) = map strip_tok (tokens_of e2) -> strip_pos e1 = strip_pos e2.
Proof. exact print_injective. Qed.
Print Assumptions C17_print_injective.

(* ---- text level ---- *)
(* parse.Expr(String(e)) = e up to positions: the string the printer model writes for e, scanned by the
   scanner model in expression mode (lexExpr) and parsed by the parser model under the entry point's
   own budget ([parse_expr_string]: Model/Lexer.v lex_items, Model/Parser.v soy_expr, the unicode classes
   being the tables regenerated from the toolchain), returns a tree equal to e up to node positions. *)
Theorem C17_text_roundtrip : forall e txt,
  wf_expr e -> lex_ok e -> print_node e = Some txt ->
  exists e' st', parse_expr_string is_letter_tbl is_digit_tbl txt = Ok (POk e' st') /\ strip_pos e' = strip_pos e.
Proof. exact text_roundtrip_tbl. Qed.
Print Assumptions C17_text_roundtrip.

(* two such expressions that print the same STRING are the same expression up to positions *)
Theorem C17_text_injective : forall e1 e2 txt,
  wf_expr e1 -> lex_ok e1 -> wf_expr e2 -> lex_ok e2 ->
  print_node e1 = Some txt -> print_node e2 = Some txt -> strip_pos e1 = strip_pos e2.
Proof. exact print_string_injective_tbl. Qed.
Print Assumptions C17_text_injective.

(* the expression parser model does not look at item positions (any item list, any budget): erasing
   the positions of the items erases the positions of the result and changes nothing else *)
Theorem C17_parser_ignores_positions : forall f ts,
  ExprParserStrip.zr strip_pos (parse_expr_top f ts) = parse_expr_top f (map strip_tok ts).
Proof. exact ExprParserStrip.parse_expr_top_strip. Qed.
Print Assumptions C17_parser_ignores_positions.

(* ---- print commands at text level ---- *)
(* lex(String(n)) for a print command n that is well-formed and lexically well-formed (lex_ok_print: as lex_ok for
   the expression and every directive argument; directive names are ASCII words that are not keywords): the
   scanner model in FILE mode returns "{", then items with the types and texts of tokens_of_print n, then EOF *)
Theorem C17_lex_print_command : forall n txt, wf_print n -> lex_ok_print n -> print_node n = Some txt ->
  exists ld mid e, lex_items is_letter_tbl is_digit_tbl (lex_budget txt) false txt = Ok (ld :: mid ++ [e]) /\
    t_typ ld = itemLeftDelim /\ t_val ld = [123] /\ map tv mid = map tv (tokens_of_print n) /\ t_typ e = itemEOF.
Proof. exact lex_print_command_tbl. Qed.
Print Assumptions C17_lex_print_command.

(* the expression at a position where the last item sent ENDS a term (the list expression of {for $x in e}
   follows the identifier item "in"): lexNegative would read a leading "-" as the binary minus; every other
   first character is lexed without looking at the last item.  For every well-formed, lexically well-formed e
   whose printed text does not start with "-", the scanner model in lexInsideTag -- whatever item it sent last --
   sends the items of tokens_of e (types and texts) and is back in lexInsideTag behind the text, the last item
   ending a term; what follows the text is anything that may follow a printed expression (fexp: space ) ] , : | }
   / or the end of the input).  Proofs/LexPrintMain.v lex_print_gen is the common generalisation of this and of
   lex_print (operand positions, any text). *)
Theorem C17_lex_print_any_last : forall inp base e txt, wf_expr e -> lex_ok e -> print_node e = Some txt -> no_minus txt ->
  lexes is_letter_tbl is_digit_tbl inp base anyty fexp txt (toks e) term.
Proof.
  intros inp base e txt Hwf Hlo Hp Hm. destruct tables_ascii as [Hl Hd]. destruct tables_eof as [El Ed].
  exact (lex_print_any is_letter_tbl is_digit_tbl Hl Hd El Ed inp base e Hwf Hlo txt Hp Hm).
Qed.
Print Assumptions C17_lex_print_any_last.
(* non-vacuity: $xs.k + 1 and not $a satisfy the hypotheses; the side condition is needed: -$a does not *)
Example C17_ex_any_last :
  let e := NBin OAdd 0 (NDataRef 0 (b "xs") [NAccKey 0 false (b "k")]) (NInt 0 1) in
  wf_expr e /\ lex_ok e /\ print_node e = Some (b "$xs.k + 1") /\ no_minus (b "$xs.k + 1") /\
  print_node (NNeg 0 (NDataRef 0 (b "a") [])) = Some (b "-$a") /\ ~ no_minus (b "-$a").
Proof. cbv zeta. repeat split; try reflexivity; try exact I; try (intros H; exact H). Qed.

(* those items, after the opening "{", put through the parsePrint model (any budget above a bound, any position q
   for the command node): the print command itself, up to node positions *)
Theorem C17_print_command_text_roundtrip : forall p arg dirs txt,
  wf_print (NPrint p arg dirs) -> lex_ok_print (NPrint p arg dirs) -> print_node (NPrint p arg dirs) = Some txt ->
  exists ld its, lex_items is_letter_tbl is_digit_tbl (lex_budget txt) false txt = Ok (ld :: its) /\ t_typ ld = itemLeftDelim /\
    exists f0, forall f q, (f0 <= f)%nat ->
      exists n' st', parse_print f q (pst_init its) = POk n' st' /\ strip_pos n' = strip_pos (NPrint p arg dirs).
Proof. exact print_command_text_roundtrip. Qed.
Print Assumptions C17_print_command_text_roundtrip.

(* THROUGH THE FILE ENTRY POINT: parse.SoyFile(String(n)).  The scanner model run on the printed string as a
   file, then the model of parse.SoyFile (Model/Parser.v: itemList -> textOrTag -> beginTag, whose implicit-print
   case hands the items to parsePrint -- cmd_print / cmd_print_loop / directive_args) under the ENTRY POINT'S OWN
   BUDGET, returns a file whose one node is the print command, up to node positions.  [inlen] is len(text), as in
   the Go code; [lexq] (the nested scanner of quoted attribute expressions, never started on this input) is any
   scanner whose items are well-formed (lexq_wf: the scanner model is one, Proofs/LexParseBridge.v lexq_model_wf);
   [unq] (strconv.Unquote) is arbitrary.  Ingredients: the command-level parsePrint follows the expression-level
   parsePrint model on every successful run (Proofs/PrintCmdFile.v sim_print); the command-level parser model is
   monotone in its budget (Proofs/CmdParserFuel.v item_list_le, every procedure of Model/Parser.v) and never runs
   out of its own budget (Proofs/ParserProofs.v), so a tree obtained under SOME budget is the entry point's. *)
Theorem C17_print_command_file_roundtrip : forall lexq unq p arg dirs txt,
  lexq_wf lexq ->
  wf_print (NPrint p arg dirs) -> lex_ok_print (NPrint p arg dirs) -> print_node (NPrint p arg dirs) = Some txt ->
  exists items pos n' st,
    lex_items is_letter_tbl is_digit_tbl (lex_budget txt) false txt = Ok items /\
    po_result (soy_file (N.of_nat (length txt)) lexq unq items) = POk (NList pos [n']) st /\
    strip_pos n' = strip_pos (NPrint p arg dirs).
Proof. exact print_command_file_roundtrip. Qed.
Print Assumptions C17_print_command_file_roundtrip.

(* the budget lemma by itself: whatever item list and whatever until-set, two budgets that both suffice give the
   same result (tree or error) *)
Theorem C17_parser_budget_irrelevant : forall inlen lexq unq efuel f f' until s,
  item_list inlen lexq unq parse_expr efuel f until s <> CFuel -> item_list inlen lexq unq parse_expr efuel f' until s <> CFuel ->
  item_list inlen lexq unq parse_expr efuel f until s = item_list inlen lexq unq parse_expr efuel f' until s.
Proof. exact item_list_agree. Qed.
Print Assumptions C17_parser_budget_irrelevant.

(* ---- the keyword clause of lex_ok, as a decidable predicate ----
   lex_ok demands of every identifier the printer writes bare (function names, the first segment of a global's
   dotted name, directive names) that it is not an entry of the scanner's keyword table: a keyword printed bare is
   read back as its own item type (C17_ex_keyword_name: and() does not parse back).  The clause is the boolean
   function c17_kw_clause (Spec/LexKeyword.v) over the regenerated table: an identifier satisfies lex_ok's demand
   exactly when it has the shape of a word and c17_not_keyword holds, and lex_ok / lex_ok_print imply the clause
   for the whole tree.  The C17 harness evaluates c17_kw_clause (the extracted definition) on every tree the real
   parser returns; a parsed tree never has a keyword in these places, because the scanner never sends one as an
   identifier item (evidence: histogram lex_ok-keyword-clause). *)
Theorem C17_identifier_keyword_clause : forall w, plain_word w <-> word_shape w /\ c17_not_keyword w = true.
Proof. exact plain_word_iff. Qed.
Print Assumptions C17_identifier_keyword_clause.

Theorem C17_keyword_clause : forall e, lex_ok e -> c17_kw_clause e = true.
Proof. exact lex_ok_kw_clause. Qed.
Print Assumptions C17_keyword_clause.

Theorem C17_keyword_clause_print : forall n, lex_ok_print n -> c17_kw_clause n = true.
Proof. exact lex_ok_print_kw_clause. Qed.
Print Assumptions C17_keyword_clause_print.

(* the converse, at tree level: lex_ok is EXACTLY "shape" + the clause.  lex_shape (Proofs/LexKeywordProofs.v) is
   lex_ok with "is an ASCII word" in place of "is an ASCII word that is not a keyword" at the identifiers printed
   bare, every other clause unchanged (literal shapes, access keys); so the decidable clause the harness evaluates
   is all that lex_ok demands of identifiers beyond their shape, for whole trees and for print commands *)
Theorem C17_lex_ok_is_shape_and_keyword_clause : forall e, lex_ok e <-> lex_shape e /\ c17_kw_clause e = true.
Proof. exact lex_ok_iff. Qed.
Print Assumptions C17_lex_ok_is_shape_and_keyword_clause.

Theorem C17_lex_ok_print_is_shape_and_keyword_clause : forall n, lex_ok_print n <-> lex_shape_print n /\ c17_kw_clause n = true.
Proof. exact lex_ok_print_iff. Qed.
Print Assumptions C17_lex_ok_print_is_shape_and_keyword_clause.
(* non-vacuity: and(1) has the shape and fails only the clause; round($a.b, 'x') has both *)
Example C17_ex_shape_without_clause :
  lex_shape (NFunc 0 (b "and") [NInt 0 1]) /\ c17_kw_clause (NFunc 0 (b "and") [NInt 0 1]) = false /\
  lex_shape (NFunc 0 (b "round") [NDataRef 0 (b "a") [NAccKey 0 false (b "b")]]) /\
  c17_kw_clause (NFunc 0 (b "round") [NDataRef 0 (b "a") [NAccKey 0 false (b "b")]]) = true.
Proof.
  split; [split; [exists 97, (b "nd"); repeat split; try reflexivity; lia|split; exact I]|]. split; [vm_compute; reflexivity|].
  split; [|vm_compute; reflexivity].
  split; [exists 114, (b "ound"); repeat split; try reflexivity; lia|]. split; [|exact I]. split; [reflexivity|]. split; [|exact I]. split; reflexivity.
Qed.

(* the clause is needed: a function named like a keyword prints as text that the scanner reads differently *)
Example C17_ex_keyword_name :
  c17_kw_clause (NFunc 0 (b "and") []) = false /\ c17_kw_clause (NFunc 0 (b "round") [NGlobal 0 (b "a.and") (VNull)]) = true /\
  print_node (NFunc 0 (b "and") []) = Some (b "and()") /\
  match lex_items is_letter_tbl is_digit_tbl (lex_budget (b "and()")) true (b "and()") with
  | Ok items => match po_result (soy_expr 5 items) with POk _ _ => False | _ => True end
  | _ => False
  end.
Proof. split; [vm_compute; reflexivity|]. split; [vm_compute; reflexivity|]. split; [vm_compute; reflexivity|]. vm_compute. exact I. Qed.

(* two such print commands that print the same STRING are the same print command up to positions *)
Theorem C17_print_command_text_injective : forall n1 n2 txt,
  wf_print n1 -> lex_ok_print n1 -> wf_print n2 -> lex_ok_print n2 ->
  print_node n1 = Some txt -> print_node n2 = Some txt -> strip_pos n1 = strip_pos n2.
Proof. exact print_command_string_injective. Qed.
Print Assumptions C17_print_command_text_injective.

(* C17_placeholders_by_text (below) with the scanner MODEL in place of the abstract scanner and its hypothesis:
   two placeholders of one message whose texts are those of well-formed, lexically well-formed print commands
   get the same name only if they are the same print command up to positions *)
Theorem C17_placeholders_by_text_scanner : forall order body es nm,
  is_perm order -> msg_entries body = Ok es -> msg_names order body = Ok nm ->
  forall b1 b2 n1 n2 s1 s2,
  wf_print n1 -> lex_ok_print n1 -> wf_print n2 -> lex_ok_print n2 -> print_node n1 = Some s1 -> print_node n2 = Some s2 ->
  In (b1, s1) es -> In (b2, s2) es ->
  name_of nm b1 s1 = name_of nm b2 s2 -> b1 = b2 /\ strip_pos n1 = strip_pos n2.
Proof. exact placeholders_by_text_scanner. Qed.
Print Assumptions C17_placeholders_by_text_scanner.

(* The same for print commands: expression, directives with their arguments, closing brace. *)
Theorem C17_print_command_roundtrip : forall p arg dirs rest,
  wf_print (NPrint p arg dirs) ->
  exists st' f0, stream st' = rest /\
    forall f, (f0 <= f)%nat ->
      parse_print f p (pst_init (tokens_of_print (NPrint p arg dirs) ++ rest)) = POk (NPrint p arg dirs) st'.
Proof. exact parse_print_roundtrip_cmd. Qed.
Print Assumptions C17_print_command_roundtrip.

(* Print commands that print the same items (up to positions) are the same (up to positions). *)
Theorem C17_print_command_injective : forall n1 n2,
  wf_print n1 -> wf_print n2 ->
  map strip_tok (tokens_of_print n1) = map strip_tok (tokens_of_print n2) -> strip_pos n1 = strip_pos n2.
Proof. exact print_command_injective. Qed.
Print Assumptions C17_print_command_injective.

(* "The message extractor identifies placeholders by this text": in the model of
   setPlaceholderNames (Model/MsgId.v, where a placeholder is a pair of base name and String()
   text), two placeholders of one message whose texts are those of well-formed print commands
   get the same name ONLY IF they are the same print command up to positions, and the same
   print command under one base name always gets one name.  [lex] is the scanner, abstract
   here: its one assumed property -- the text printed for a well-formed print command is read
   as the items tokens_of_print gives, up to positions -- is the token correspondence that the
   harness checks on every run; everything else is proved. *)
Theorem C17_placeholders_by_text :
  forall (lex : bstr -> list tok),
  (forall n s, wf_print n -> print_node n = Some s -> map strip_tok (lex s) = map strip_tok (tokens_of_print n)) ->
  forall order body es nm, is_perm order -> msg_entries body = Ok es -> msg_names order body = Ok nm ->
  forall b1 b2 n1 n2 s1 s2,
  wf_print n1 -> wf_print n2 -> print_node n1 = Some s1 -> print_node n2 = Some s2 ->
  In (b1, s1) es -> In (b2, s2) es ->
  (name_of nm b1 s1 = name_of nm b2 s2 -> b1 = b2 /\ strip_pos n1 = strip_pos n2) /\
  (b1 = b2 -> strip_pos n1 = strip_pos n2 -> name_of nm b1 s1 = name_of nm b2 s2).
Proof.
  intros lex Hlex order body es nm Hp Hes Hnm b1 b2 n1 n2 s1 s2 W1 W2 P1 P2 I1 I2. split.
  - exact (same_name_same_command lex Hlex order body es nm Hp Hes Hnm b1 b2 n1 n2 s1 s2 W1 W2 P1 P2 I1 I2).
  - intros -> E. exact (same_command_same_name nm b2 n1 n2 s1 s2 P1 P2 E).
Qed.
Print Assumptions C17_placeholders_by_text.

(* The round trip holds for ANY placement of redundant parentheses, not only the printer's
   minimal one (the C01 syntax theorem; C17 is its instance sty_min). *)
Theorem C17_parse_show : forall sty path e t rest,
  wf_expr e -> closer t = true ->
  exists st' f0, stream st' = t :: rest /\
    forall f, (f0 <= f)%nat -> parse_expr_top f (show sty path e ++ t :: rest) = POk e st'.
Proof. exact parse_show_top. Qed.
Print Assumptions C17_parse_show.

(* The printer model parenthesises by the Soy operator table: finite checks on the tables
   regenerated from ast/node.go and parse/parse.go. *)
Theorem C17_printer_levels : forall e, level_of e = expr_level e.
Proof. exact ast_level_of_is_expr_level. Qed.
Print Assumptions C17_printer_levels.

Theorem C17_parser_levels : forall op,
  is_binary_op (op_tok_typ op) = true /\
  prec_of (op_tok_typ op) = match op with OElvis => 0 | _ => op_level op end.
Proof. intros op. split; [apply op_tok_binary | apply qlev_spec]. Qed.
Print Assumptions C17_parser_levels.

(* Side conditions of wf_expr that are theorems: every int64 literal (FormatInt then ParseInt)
   and every valid UTF-8 map key (escaped by the printer, read by unquoteString) reads back. *)
Theorem C17_int_literals : forall z, in_int64 z = true -> parse_int 10 (dec_of_Z z) = Some z.
Proof. exact LiteralProofs.parse_int_dec. Qed.
Print Assumptions C17_int_literals.

Theorem C17_map_keys : forall k, Utf8.utf8_valid k = true -> key_ok k.
Proof. exact key_ok_valid_utf8. Qed.
Print Assumptions C17_map_keys.

(* Float literals: the side condition of wf_expr ([float_ok f]: f is a finite float in normal form -- a signed
   zero or an odd mantissa, what every operation of Model/Num.v returns -- that the printer model prints) says
   nothing about reading back.  THEOREM (Proofs/FloatRt*.v, no sample, no bound on digits or exponent):
   the text FloatNode.String() writes for such a float (strconv 'g' -1: the shortest digits that identify the
   float64, in one of four layouts, ".0" appended to a bare integer) is a float literal of the scanner's syntax
   and strconv.ParseFloat's correctly rounded conversion (NumLit.parse_float_round) reads it back as the same
   float: the digits lie in the rounding interval of f (every exit of the digit search), and round_ratio returns f
   for every fraction in that interval, ties included when the mantissa is even.  16- and 17-digit floats such as
   599/2^20 = 0.00057125091552734375, printed as 0.0005712509155273438, are inside.
   What is left of the condition is the shape of the value: the printer model answers on every float of the model's
   window and on no other (C17_float_condition; Proofs/FloatRtTotal.v: the decimal exponent is among the four
   candidates around the estimate, and 17 digits always suffice). *)
Theorem C17_float_literals : forall f s, fl_finite_norm f -> fl_print f = Some s -> parse_float_round s = FRVal f.
Proof. exact FloatRtPrint.fl_print_parse. Qed.
Print Assumptions C17_float_literals.

(* and the printer model prints exactly the floats of the model: float_ok is a condition on the shape of the value *)
Theorem C17_float_condition : forall f, float_ok f <-> FloatRtMain.fl_in_window f.
Proof. exact FloatRtPrint.float_ok_iff_window. Qed.
Print Assumptions C17_float_condition.

(* the float clause of lex_ok (the printed float text is ONE float item for the scanner: sign, digits, then a fraction
   or an exponent) is a theorem too: lex_ok says nothing about floats that wf_expr does not already give *)
Theorem C17_float_texts : forall f s, fl_finite_norm f -> fl_print f = Some s -> float_txt_ok s.
Proof. exact FloatRtLex.fl_print_float_txt. Qed.
Print Assumptions C17_float_texts.
Theorem C17_float_lex_ok : forall p f, float_ok f -> lex_ok (NFloat p f).
Proof. intros p f [Hn _]. exact (FloatRtLex.lex_ok_float p f Hn). Qed.
Print Assumptions C17_float_lex_ok.

Theorem C17_float_checker_sound : forall f, float_okb f = true -> float_ok f.
Proof. exact float_okb_sound. Qed.
Print Assumptions C17_float_checker_sound.

Fixpoint c17_upto (n : nat) : list Z := match n with O => [] | S k => Z.of_nat k :: c17_upto k end.
Definition c17_float_samples : list fl :=
  flat_map (fun k => flat_map (fun j => match mk_fl (2 * k + 1) (- Z.of_nat j) with Some f => [f; fl_neg f] | None => [] end)
                              [0; 1; 2; 3; 5; 9; 10; 14; 20]%nat) (c17_upto 60).
Example C17_float_sample :
  forallb float_okb c17_float_samples = true /\ length c17_float_samples = 1080%nat /\
  fl_print (FFin 599 (-20)) = Some (b "0.0005712509155273438") /\ float_okb (FFin 599 (-20)) = true /\
  parse_float_round (b "0.0005712509155273438") = FRVal (FFin 599 (-20)).
Proof.
  assert (P : fl_print (FFin 599 (-20)) = Some (b "0.0005712509155273438")) by (vm_compute; reflexivity).
  split; [|split; [vm_compute; reflexivity|split; [exact P|split]]].
  - (* the samples are results of mk_fl and their negations: floats of the window, which are all printed *)
    apply forallb_forall. intros f Hf.
    assert (W : FloatRtMain.fl_in_window f).
    { apply in_flat_map in Hf as (k & _ & Hf). apply in_flat_map in Hf as (j & _ & Hf).
      destruct (mk_fl (2 * k + 1) (- Z.of_nat j)) as [g|] eqn:E; [|destruct Hf].
      apply FloatRtMain.rt_mk_fl_window in E.
      destruct Hf as [<-|[<-|[]]]; [|apply FloatRtMain.rt_window_neg]; exact E. }
    unfold float_okb. destruct (FloatRtPrint.fl_print_total f W) as (s & ->).
    destruct f; try contradiction; [reflexivity|]. rewrite (proj1 W). reflexivity.
  - unfold float_okb. rewrite P. reflexivity.
  - exact (FloatRtPrint.fl_print_parse (FFin 599 (-20)) _ eq_refl P).
Qed.

(* ---- non-vacuity: concrete well-formed trees, printed and read back by computation ---- *)
Definition ex_nested : node :=            (* (1 + $a.b?[0]) * -(5) *)
  NBin OMul 9 (NBin OAdd 3 (NInt 2 1) (NDataRef 6 (b "a") [NAccKey 8 false (b "b"); NAccExpr 10 true (NInt 11 0)]))
              (NNeg 14 (NInt 16 5)).
Definition ex_tern : node :=              (* not ($x and y.z) ? ['k\'': 2.5, 'm': []] : f('s', 1e+06) ?: null *)
  NTern 1 (NNot 1 (NBin OAnd 4 (NDataRef 2 (b "x") []) (NGlobal 5 (b "y.z") VUndef)))
          (NMapLit 7 [(b "k'", NFloat 8 (FFin 5 (-1))); (b "m", NListLit 9 [])])
          (NBin OElvis 12 (NFunc 10 (b "f") [NString 11 (b "'s'") (b "s"); NFloat 13 (FFin 15625 6)]) (NNull 14)).

Example C17_wf_nonvacuous : wf_expr ex_nested /\ wf_expr ex_tern.
Proof.
  split; cbn [ex_nested ex_tern wf_expr allP keys_sorted map fst snd pos_of]; unfold key_ok, float_ok;
    repeat match goal with
           | |- _ /\ _ => split
           | |- True => exact I
           | |- exists _, _ => eexists
           | |- fl_finite_norm _ => vm_compute; reflexivity
           | |- _ = _ => vm_compute; reflexivity
           | |- (_ <= _)%Z => vm_compute; discriminate
           end.
Qed.

Example C17_tokens_nonvacuous :
  map t_typ (tokens_of ex_nested) =
    [pk_itemLeftParen; pk_itemInteger; pk_itemAdd; pk_itemDollarIdent; pk_itemDotIdent; pk_itemQuestionKey; pk_itemInteger;
     pk_itemRightBracket; pk_itemRightParen; pk_itemMul; pk_itemNegate; pk_itemLeftParen; pk_itemInteger; pk_itemRightParen]
  /\ print_node ex_nested = Some (b "(1 + $a.b?[0]) * -(5)")
  /\ print_node ex_tern = Some (b "not ($x and y.z) ? ['k\'': 2.5, 'm': []] : f('s',1e+06) ?: null").
Proof. vm_compute. repeat split; reflexivity. Qed.

Example C17_roundtrip_nonvacuous :
  (exists st, parse_expr_top 40 (tokens_of ex_nested ++ [T_rdelim]) = POk ex_nested st) /\
  (exists st, parse_expr_top 60 (tokens_of ex_tern ++ [T_rdelim]) = POk ex_tern st).
Proof. split; eexists; vm_compute; reflexivity. Qed.

(* text level, by computation: the printed strings of the two trees above go through scanner and parser
   models and come back as the trees, positions aside *)
Definition c17_text_rt (e : node) : Prop :=
  match print_node e with
  | Some txt => match parse_expr_string is_letter_tbl is_digit_tbl txt with
                | Ok (POk e' _) => strip_pos e' = strip_pos e
                | _ => False
                end
  | None => False
  end.
Example C17_text_roundtrip_nonvacuous : c17_text_rt ex_nested /\ c17_text_rt ex_tern.
Proof. split; vm_compute; reflexivity. Qed.

(* a print command with directives, by computation: its printed string, the scanner model's items in file mode,
   and the parsePrint model on them *)
Definition ex_print : node :=
  NPrint 0 ex_nested [NDirective 0 (b "truncate") [NInt 0 5; NBool 0 true]; NDirective 0 (b "noAutoescape") []].
Example C17_print_command_text_nonvacuous :
  print_node ex_print = Some (b "{(1 + $a.b?[0]) * -(5)|truncate:5,true|noAutoescape}") /\
  match print_node ex_print with
  | Some txt =>
      match lex_items is_letter_tbl is_digit_tbl (lex_budget txt) false txt with
      | Ok (ld :: its) =>
          map tv (removelast its) = map tv (tokens_of_print ex_print) /\
          match parse_print 60 0 (pst_init its) with POk n' _ => strip_pos n' = strip_pos ex_print | _ => False end
      | _ => False
      end
  | None => False
  end.
Proof. split; [vm_compute; reflexivity|]. vm_compute. split; reflexivity. Qed.
(* ... and through the file entry point, by computation: the one node of the file is the command *)
Example C17_print_command_file_nonvacuous :
  match print_node ex_print with
  | Some txt =>
      match lex_items is_letter_tbl is_digit_tbl (lex_budget txt) false txt with
      | Ok items =>
          match po_result (soy_file (N.of_nat (length txt)) (fun _ => []) (fun _ => None) items) with
          | POk (NList _ [n']) _ => strip_pos n' = strip_pos ex_print
          | _ => False
          end
      | _ => False
      end
  | None => False
  end.
Proof. vm_compute. reflexivity. Qed.
(* ---- extension to template bodies (the property's text speaks of expressions and print
   commands; this is the same statement for the command forms whose String() is source syntax
   the parser accepts again: raw text, print, {log}, {debugger}, {let} in both forms,
   {if}/{elseif}/{else}, {for}/{ifempty}, {switch}/{case}/{default}, {call} with data="all" /
   data="e" and {param k: e/} / {param k}..{/param}, {css}, {msg}, {plural} inside {msg}, nested to any depth).
   Model/Parser.v's itemList (parse.go itemList / textOrTag / beginTag and the command parsers,
   same next/backup/peek order as the Go code), started in ANY parser state (inside or outside a
   {msg}: flag m) that delivers the items of a well-formed body followed by "{" and an item u
   that ends the list, returns that body itself for every fuel above some bound, has consumed
   "{" and u, and leaves the items that follow; the state is unchanged but for the token plumbing
   and the log of nested scanners.
   External functions enter with their contracts: unq (strconv.Unquote inverts
   strconv.Quote on the printer model's domain); lexq (the nested scanner) enters through
   wf_body's clause quoted_ok: it reads the printed text of the expression as the expression's items.
   The budget of the nested expression parse of data="e" / {css e, x} is the one the model's entry
   points use (Model/Parser.v expr_fuel = number of items + 8); that it is enough is proved
   (Proofs/ExprParserMono.v expr_fuel_ok: termination below the measure + monotonicity in the fuel).
   {msg meaning= desc=} with raw text, html tags and command placeholders is covered ({msg} reads its
   body with tree.inmsg set and placeholderizes it; the theorem shows the children come back), and
   {plural} inside it in both forms the parser builds: as the only child of the {msg} (case bodies
   placeholderized, recursively through nested {plural}s) and as a command of a body nested in the
   {msg} ({msg}{log}{plural}..: case bodies stay bodies).
   wf_body excludes only: trees the parser cannot build (see Spec/CmdSyntax.v), raw text that is not
   in the form line joining leaves, and the file-level nodes (namespace, template, header parameter,
   soydoc, alias), which beginTag would accept in a body but whose String() is not source syntax
   (notes/astprint-reparse.md).  {literal}, {sp} {nil} {lb} .., {foreach}, {print e}, {let kind=}
   read to trees whose String() is another covered form. ---- *)
Theorem C17_parse_body_roundtrip :
  forall (ns : bstr) (al : list (bstr * bstr)) (inlen : N) (lexq : bstr -> list tok) (unq : bstr -> option bstr),
  (forall s q, go_quote s = Some q -> unq q = Some s) ->
  forall m x until u rest,
  wf_body lexq (nameok ns al) m x -> good_until until = true -> one_of (t_typ u) until = true ->
  forall s, stream (c_p s) = body_toks x ++ T_ldelim :: u :: rest -> inv (c_p s) ->
            c_inmsg s = m -> c_ns s = ns -> c_al s = al ->
  exists p' sc', stream p' = rest /\ inv p' /\
    exists f0, forall f, (f0 <= f)%nat -> item_list inlen lexq unq parse_expr expr_fuel f until s = COk x (set_ps s p' sc').
Proof.
  intros ns al inlen lexq unq Hunq m x until u rest Hwf Hg Hu s Hs Hi Hm Hns Hal.
  destruct (parse_body_roundtrip ns al inlen lexq unq expr_fuel expr_fuel_ok Hunq m x until u rest Hwf Hg Hu s (c_p s) (c_scans s) (conj Hs Hi) (conj Hm (conj Hns Hal)))
    as (p' & sc' & ([H1 H2] & _) & f0 & HF).
  exists p', sc'. split; [exact H1|]. split; [exact H2|]. exists f0. intros f Hf. rewrite <- (HF f f Hf Hf), set_ps_eta. reflexivity.
Qed.
Print Assumptions C17_parse_body_roundtrip.

(* every list of closing items the parser uses for a body is "good": no item that starts a
   command or text of a body can be mistaken for the end of the list *)
Example C17_until_lists_good :
  forallb good_until [u_log; u_let; u_if; u_for; u_ifempty; u_template; u_param; u_case; u_msg] = true.
Proof. vm_compute. reflexivity. Qed.

(* non-vacuity: a body with every covered form, well-formed, printed, and read back by computation *)
(* the nested scanner of the example: lexExpr("$d") *)
Definition ex_lexq (s : bstr) : list tok :=
  if bstr_eqb s (b "$d") then [tk pk_itemDollarIdent 2 (b "$d"); tk pit_Error 2 (b "unclosed tag")] else [].
Definition ex_unq (q : bstr) : option bstr := match q with _ :: r => Some (removelast r) | [] => None end.

Definition ex_body : node :=
  NList 5 [ NRawText 5 (b "Hi ");
            NPrint 7 (NDataRef 7 (b "a") []) [NDirective 8 (b "truncate") [NInt 9 5]];
            NIf 11 [ NIfCond 11 (Some (NBin OAnd 13 (NDataRef 12 (b "a") []) (NNot 14 (NDataRef 15 (b "b") [])))) (NList 16 [NRawText 16 (b "x")]);
                     NIfCond 11 (Some (NDataRef 17 (b "c") [])) (NList 0 []);
                     NIfCond 11 None (NList 0 [NDebugger 18]) ];
            NFor 20 (b "i") (NFunc 21 (b "range") [NInt 22 3])
                 (NList 0 [NLetValue 23 (b "v") (NBin OAdd 25 (NDataRef 24 (b "i") []) (NInt 26 1)); NPrint 27 (NDataRef 27 (b "v") []) []])
                 (Some (NList 28 [NRawText 28 (b "none")]));
            NLetContent 30 (b "w") (NList 0 [NLog 31 (NList 32 [NRawText 32 (b "in log")])]);
            NSwitch 40 (NDataRef 41 (b "k") [])
                 [ NSwitchCase 42 [NInt 43 1; NInt 44 2] (NList 45 [NRawText 45 (b "one")]);
                   NSwitchCase 46 [] (NList 0 [NCss 47 None (b "cls")]) ];
            NCall 50 (b "ns.other") false (Some (NDataRef 2 (b "d") []))
                 [ NParamValue 51 (b "k") (NInt 52 1);
                   NParamContent 53 (b "c") (NList 0 [NCss 54 (Some (NDataRef 2 (b "d") [])) (b "suf")]) ];
            NCall 60 (b "ns.third") true None [];
            NMsg 70 0 (b "verb") (b "greeting, imperative")
                 [ NRawText 71 (b "Click "); NMsgPlaceholder 77 [] (NMsgHtmlTag 77 (b "<a href=x>"));
                   NMsgPlaceholder 88 [] (NPrint 88 (NDataRef 88 (b "label") []) []);
                   NMsgPlaceholder 89 [] (NMsgHtmlTag 89 (b "</a>")); NRawText 93 (b " now") ] ].

Example C17_body_wf_nonvacuous : wf_body ex_lexq (nameok (b "ns") []) false ex_body.
Proof.
  cbn -[msg_raw_text rawtext_run go_quote print_node trim_space run_text run_pos split_dots c17_no_lead_minus].
  unfold key_ok, float_ok, quoted_ok, call_name_ok, nameok, plain, no_byte, run_ok.
  repeat match goal with
         | |- c17_no_lead_minus _ => vm_compute; exact I
         | H : _ :: _ = [] |- _ => discriminate H
         | H : false = true |- _ => discriminate H
         | H : existsb _ _ = true |- _ => vm_compute in H; try discriminate H
         | |- _ /\ _ => split
         | |- True => exact I
         | |- exists _, _ => eexists
         | Ha : c_al ?s = _ |- resolve_name ?s _ = _ => unfold resolve_name; rewrite Ha; vm_compute; reflexivity
         | |- forall _, _ => intro
         | |- wf_expr _ => cbn
         | |- fl_finite_norm _ => vm_compute; reflexivity
         | |- _ = _ => vm_compute; reflexivity
         | |- _ <> _ => vm_compute; discriminate
         end.
Qed.

Example C17_body_prints_nonvacuous :
  print_tree ex_body = Some (b "Hi {$a|truncate:5}{if $a and not $b}x{elseif $c}{else}{debugger}{/if}{for $i in range(3)}{let $v: $i + 1 /}{$v}{ifempty}none{/for}{let $w}{log}in log{/log}{/let}{switch $k}{case 1,2}one{case }{css cls}{/switch}{call ns.other data=""$d""}{param k: 1/}{param c}{css $d, suf}{/param}{/call}{call ns.third data=""all""/}{msg meaning=""verb"" desc=""greeting, imperative""}Click <a href=x>{$label}</a> now{/msg}").
Proof. vm_compute. reflexivity. Qed.

Example C17_body_roundtrip_nonvacuous :
  exists s, item_list 0 ex_lexq ex_unq parse_expr (fun _ => 20%nat) 60 u_template
              (cst_init (body_toks ex_body ++ [T_ldelim; kw pit_TemplateEnd 0; T_rdelim])) = COk ex_body s.
Proof. eexists. vm_compute. reflexivity. Qed.

(* {plural}: the only child of its {msg}, with a nested {plural} in a case body, and a {plural} that is a
   command of a {log} inside a {msg} (its case bodies are not placeholderized) *)
Definition ex_plural_body : node :=
  NList 0 [ NMsg 1 0 [] (b "n items")
              [ NMsgPlural 2 [] (NDataRef 3 (b "n") [])
                  [ NMsgPluralCase 4 1 [ NRawText 5 (b "one "); NMsgPlaceholder 9 [] (NMsgHtmlTag 9 (b "<b>"));
                                         NMsgPlaceholder 12 [] (NPrint 12 (NDataRef 12 (b "x") []) []) ];
                    NMsgPluralCase 20 2 [ NMsgPlural 21 [] (NDataRef 22 (b "m") []) [] [ NRawText 23 (b "few") ] ] ]
                  [ NRawText 30 (b "many "); NMsgPlaceholder 35 [] (NPrint 35 (NDataRef 35 (b "n") []) []) ] ];
            NMsg 40 0 [] (b "d")
              [ NMsgPlaceholder 41 [] (NLog 41 (NList 0 [ NMsgPlural 42 [] (NDataRef 43 (b "k") [])
                                                           [ NMsgPluralCase 44 0 [ NRawText 45 (b "zero") ] ]
                                                           [ NPrint 46 (NDataRef 46 (b "k") []) [] ] ])) ] ].

Example C17_plural_wf_nonvacuous : wf_body ex_lexq (nameok (b "ns") []) false ex_plural_body.
Proof.
  cbn -[msg_raw_text rawtext_run go_quote print_node trim_space run_text run_pos split_dots in_int64].
  unfold run_ok.
  repeat match goal with
         | H : _ :: _ = [] |- _ => discriminate H
         | H : false = true |- _ => discriminate H
         | H : existsb _ _ = true |- _ => vm_compute in H; try discriminate H
         | |- _ /\ _ => split
         | |- True => exact I
         | |- forall _, _ => intro
         | |- wf_expr _ => cbn
         | |- (_ <= _)%Z => vm_compute; discriminate
         | |- _ = _ => vm_compute; reflexivity
         | |- _ <> _ => vm_compute; discriminate
         end.
Qed.

Example C17_plural_prints_nonvacuous :
  print_tree ex_plural_body = Some (b "{msg desc=""n items""}{plural $n}{case 1}one <b>{$x}{case 2}{plural $m}{default}few{/plural}{default}many {$n}{/plural}{/msg}{msg desc=""d""}{log}{plural $k}{case 0}zero{default}{$k}{/plural}{/log}{/msg}").
Proof. vm_compute. reflexivity. Qed.

Example C17_plural_roundtrip_nonvacuous :
  exists s, item_list 0 ex_lexq ex_unq parse_expr expr_fuel 60 u_template
              (cst_init (body_toks ex_plural_body ++ [T_ldelim; kw pit_TemplateEnd 0; T_rdelim])) = COk ex_plural_body s.
Proof. eexists. vm_compute. reflexivity. Qed.

(* ---- the body round trip for the items a scanner really sends.  [body_toks x] carries the node
   positions and 0 at the items that create no node; the scanner puts the offset of its end on every
   item.  The command-level parser model (all of Model/Parser.v: itemList, textOrTag, beginTag and every
   command parser, the nested scanners of data="e" / {css e, x}, placeholderize) does not look at item
   positions on a successful run (C17_cmd_parser_ignores_positions: two runs from states that agree up
   to positions both succeed, with trees equal up to positions and final states that agree up to
   positions; error runs are excluded because errorAt compares the position with the input length).
   Hence ANY item list with the types and texts of body_toks x ++ "{" u rest is read, from the initial
   state and under the entry points' budget, as x up to positions. ---- *)
Theorem C17_cmd_parser_ignores_positions :
  forall (inlen inlen' : N) (lexq : bstr -> list tok) (unq : bstr -> option bstr) f until its its' x s,
  map strip_tok its = map strip_tok its' ->
  item_list inlen lexq unq parse_expr expr_fuel f until (cst_init its) = COk x s ->
  exists x' s', item_list inlen' lexq unq parse_expr expr_fuel f until (cst_init its') = COk x' s' /\ cps_strip x = cps_strip x'.
Proof. exact cps_body_expr_fuel. Qed.
Print Assumptions C17_cmd_parser_ignores_positions.

Theorem C17_parse_body_roundtrip_any_positions :
  forall (inlen inlen' : N) (lexq : bstr -> list tok) (unq : bstr -> option bstr),
  (forall s q, go_quote s = Some q -> unq q = Some s) ->
  forall x until u rest its,
  wf_body lexq (nameok [] []) false x -> good_until until = true -> one_of (t_typ u) until = true ->
  map strip_tok its = map strip_tok (body_toks x ++ T_ldelim :: u :: rest) ->
  exists f0, forall f, (f0 <= f)%nat ->
    exists x' s', item_list inlen' lexq unq parse_expr expr_fuel f until (cst_init its) = COk x' s' /\ cps_strip x' = cps_strip x.
Proof. exact body_roundtrip_any_positions. Qed.
Print Assumptions C17_parse_body_roundtrip_any_positions.

(* non-vacuity: the items of the {plural} example with every position replaced by 7 *)
Example C17_any_positions_nonvacuous :
  match item_list 0 ex_lexq ex_unq parse_expr expr_fuel 60 u_template
          (cst_init (map (fun t => tk (t_typ t) 7 (t_val t)) (body_toks ex_plural_body ++ [T_ldelim; kw pit_TemplateEnd 0; T_rdelim]))) with
  | COk x' _ => cps_strip x' = cps_strip ex_plural_body /\ x' <> ex_plural_body
  | _ => False
  end.
Proof. vm_compute. split; [reflexivity | discriminate]. Qed.

(* ---- template bodies at TEXT level.  C17_lex_body_partial: the scanner model in file mode on the string
   String() writes for a body of the class lb17_okb (Proofs/LexBodyC17Body.v) sends exactly the items of
   body_toks (types and texts), then EOF: lexText on the text stretches, lexLeftDelim / lexBeginTag with the
   keyword table for "{if " "{let " "{for " ..., lexInsideTag for the expressions (lex_print), both right
   delimiters back to lexText, the closing tags "{/if}" .., lexCss, attribute strings.
   PARTIAL in the class:
   raw text that lexText reads as one piece whatever precedes it (lb17_one_piece: no comment opener "/*", no "//" at
   its start or behind white space; a single "/" is fine), print, {debugger}, {log}, {let} in both forms,
   {if}/{elseif}/{else}, {for}/{ifempty} with any list expression whose text does not start with "-" (c17_no_lead_minus, a clause of wf_body too; after "in" it
   is lexed with a term as the previous item), {switch} whose cases all have values (the default case prints as
   "{case }": W1), {css}, {call} with data="all" / data="e" / no attribute, without parameters ({call x.y/}) or with
   parameters of both forms ({param k: e/}, {param k}..{/param}); NOT {msg} / {plural} (the run accumulation of
   children_toks and %q strings at string level), {css} text
   with non-ASCII bytes.  Raw text WITH a comment opener is outside for a reason of the code, not of the proof:
   RawTextNode.String() writes the text, and the scanner takes "//" behind white space and "/*" as comments
   (another member of W2, notes/astprint-reparse.md).
   C17_template_body_text_roundtrip_partial: for such a body that is also well-formed (wf_body), the string
   String(body) ++ "{/template}" goes through the scanner model and then through the command-level parser model
   (from its initial state, for every budget above a bound, with the entry points' expression budget) to the
   body itself up to node positions: bytes -> items (above) -> any items with these types and texts are read as
   the body up to positions (C17_parse_body_roundtrip_any_positions). ---- *)
Theorem C17_lex_body_partial : forall q ns txt, lb17_okb ns -> print_tree (NList q ns) = Some txt ->
  exists its e, lex_items is_letter_tbl is_digit_tbl (lex_budget txt) false txt = Ok (its ++ [e]) /\ t_typ e = itemEOF /\
    map tv its = map tv (body_toks (NList q ns)).
Proof. exact lb17_lex_body_tbl. Qed.
Print Assumptions C17_lex_body_partial.

Theorem C17_template_body_text_roundtrip_partial :
  forall (inlen inlen' : N) (lexq : bstr -> list tok) (unq : bstr -> option bstr),
  (forall s q, go_quote s = Some q -> unq q = Some s) ->
  forall q ns txt,
  wf_body lexq (nameok [] []) false (NList q ns) -> lb17_okb ns -> print_tree (NList q ns) = Some txt ->
  exists its,
    lex_items is_letter_tbl is_digit_tbl (lex_budget (txt ++ b "{/template}")) false (txt ++ b "{/template}") = Ok its /\
    exists f0, forall f, (f0 <= f)%nat ->
      exists x' s', item_list inlen' lexq unq parse_expr expr_fuel f u_template (cst_init its) = COk x' s' /\
                    cps_strip x' = cps_strip (NList q ns).
Proof. exact template_body_text_roundtrip. Qed.
Print Assumptions C17_template_body_text_roundtrip_partial.

(* non-vacuity: a{if $x}b{else}{debugger}{/if}{let $y}c{/let} with positions that satisfy wf_body *)
Definition ex_bytes_nodes : list node :=
  [ NRawText 1 [97];
    NIf 3 [ NIfCond 3 (Some (NDataRef 4 [120] [])) (NList 5 [NRawText 5 [98]]);
            NIfCond 3 None (NList 0 [NDebugger 6]) ];
    NLetContent 7 [121] (NList 8 [NRawText 8 [99]]) ].
Example C17_bytes_example_wf : wf_body ex_lexq (nameok [] []) false (NList 1 ex_bytes_nodes).
Proof.
  cbn -[rawtext_run]. repeat split; try (vm_compute; reflexivity); try (vm_compute; discriminate).
Qed.
Example C17_bytes_example_ok : lb17_okb ex_bytes_nodes.
Proof.
  unfold ex_bytes_nodes.
  apply lb17_example_text; try lia; try reflexivity.
  apply lb17_ok_cmd.
  { apply lb17_ok_if. apply lb17_ok_conds_cond.
    - exact I.
    - split; [reflexivity|exact I].
    - apply lb17_example_text; try lia; try reflexivity. apply lb17_ok_nil.
    - apply lb17_ok_conds_else. apply lb17_ok_cmd; [apply lb17_ok_debugger|apply lb17_ok_nil]. }
  apply lb17_ok_cmd; [|apply lb17_ok_nil].
  apply lb17_ok_letc; [reflexivity|]. apply lb17_example_text; try lia; try reflexivity. apply lb17_ok_nil.
Qed.
Example C17_bytes_example_text :
  print_tree (NList 1 ex_bytes_nodes) = Some (b "a{if $x}b{else}{debugger}{/if}{let $y}c{/let}").
Proof. vm_compute. reflexivity. Qed.

(* ---- parse.SoyFile(String(file)).  SoyFileNode.String() concatenates the String()s of the file's nodes; parse.SoyFile
   is itemList with the until set {EOF} under the budget file_fuel.  A file whose String() is SOURCE SYNTAX is a list of
   body-level commands (what parse.SoyFile accepts outside templates): TemplateNode.String prints the qualified name
   (the parser wants ".name"), drops autoescape / private / kind and adds line breaks around the body, NamespaceNode
   drops autoescape, SoyDocNode the description (W3 of notes/astprint-reparse.md; C17_file_with_template_refuted below
   is the witness in the models).
   C17_file_parse_roundtrip_any_positions: token level, the list ends AT the item EOF (Proofs/CmdRoundtripEof.v): any
   items with the types and texts of body_toks x followed by EOF are read by itemList {EOF} from the initial state,
   for every budget above a bound, as x up to positions.
   C17_soy_file_text_roundtrip_partial: bytes -> tree through the entry point itself: for a list of commands of the
   class lb17_okb that is wf_body, the scanner model on String() sends items on which soy_file (the model of
   parse.SoyFile, with ITS budget) returns the list up to node positions.  PARTIAL only in the class (see above). ---- *)
Theorem C17_file_parse_roundtrip_any_positions :
  forall (inlen inlen' : N) (lexq : bstr -> list tok) (unq : bstr -> option bstr),
  (forall s q, go_quote s = Some q -> unq q = Some s) ->
  forall q nodes e its,
  wf_body lexq (nameok [] []) false (NList q nodes) -> t_typ e = pit_EOF ->
  map strip_tok its = map strip_tok (body_toks (NList q nodes) ++ [e]) ->
  exists f0, forall f, (f0 <= f)%nat ->
    exists x' s', item_list inlen' lexq unq parse_expr expr_fuel f u_eof (cst_init its) = COk x' s' /\
                  cps_strip x' = cps_strip (NList q nodes).
Proof. exact file_roundtrip_any_positions. Qed.
Print Assumptions C17_file_parse_roundtrip_any_positions.

Theorem C17_soy_file_text_roundtrip_partial :
  forall (lexq : bstr -> list tok) (unq : bstr -> option bstr),
  lexq_wf lexq -> (forall s q, go_quote s = Some q -> unq q = Some s) ->
  forall q ns txt,
  wf_body lexq (nameok [] []) false (NList q ns) -> lb17_okb ns -> print_tree (NList q ns) = Some txt ->
  exists its x' p',
    lex_items is_letter_tbl is_digit_tbl (lex_budget txt) false txt = Ok its /\
    po_result (soy_file (N.of_nat (length txt)) lexq unq its) = POk x' p' /\
    cps_strip x' = cps_strip (NList q ns).
Proof. exact soy_file_text_roundtrip. Qed.
Print Assumptions C17_soy_file_text_roundtrip_partial.

(* non-vacuity: text with "/", {call x.y/}, {param k: e/} *)
Definition ex_file_nodes : list node :=
  [ NRawText 1 (b "a/b");
    NCall 0 (b "x.y") false None [];
    NCall 0 (b "x.z") false None [NParamValue 0 (b "k") (NDataRef 0 (b "e") [])] ].
Definition ex_file_text : bstr := Eval vm_compute in b "a/b{call x.y/}{call x.z}{param k: $e/}{/call}".
Example C17_file_example_text : print_tree (NList 1 ex_file_nodes) = Some ex_file_text.
Proof. vm_compute. reflexivity. Qed.
Example C17_file_example_wf : wf_body ex_lexq (nameok [] []) false (NList 1 ex_file_nodes).
Proof.
  cbn -[rawtext_run print_node split_dots].
  unfold call_name_ok, nameok.
  repeat match goal with
         | |- _ /\ _ => split
         | |- True => exact I
         | |- exists _, _ => eexists
         | Ha : c_al ?s = _ |- resolve_name ?s _ = _ => unfold resolve_name; rewrite Ha; vm_compute; reflexivity
         | |- forall _, _ => intro
         | |- wf_expr _ => cbn
         | |- _ = _ => vm_compute; reflexivity
         | |- _ <> _ => vm_compute; discriminate
         end.
Qed.
Lemma ex_plain_word_1 c : (c < 128)%N -> letter_b c = true -> assoc_s [c] builtin_idents = None -> plain_word [c].
Proof. intros H1 H2 H3. exists c, []. repeat split; assumption. Qed.
Lemma ex_dotted_2 c d : plain_word [c] -> alnums [d] -> head_digit [d] = false ->
  split_dots [] [c; 46; d] = [[c]; [46; d]] -> dotted_ok [c; 46; d].
Proof.
  intros H1 H2 H3 E. unfold dotted_ok. rewrite E. split; [exact H1|]. constructor; [|constructor].
  exists [d]. repeat split; assumption.
Qed.
Example C17_file_example_ok : lb17_okb ex_file_nodes.
Proof.
  unfold ex_file_nodes.
  apply lb17_ok_text.
  - repeat (apply Forall_cons; [repeat split; discriminate|]). apply Forall_nil.
  - intros pw. destruct pw; reflexivity.
  - reflexivity.
  - apply lb17_ok_cmd; [|apply lb17_ok_cmd; [|apply lb17_ok_nil]].
    + apply lb17_ok_call; [|exact I|apply lb17_ok_params_nil].
      apply ex_dotted_2; try reflexivity. apply ex_plain_word_1; reflexivity.
    + apply lb17_ok_call; [|exact I|].
      * apply ex_dotted_2; try reflexivity. apply ex_plain_word_1; reflexivity.
      * apply lb17_ok_params_val; [|exact I|split; [reflexivity|exact I]|apply lb17_ok_params_nil].
        apply ex_plain_word_1; reflexivity.
  - exact I.
Qed.
(* the same example by computation: scanner model, then the model of parse.SoyFile *)
Example C17_file_example_parses :
  match lex_items is_letter_tbl is_digit_tbl (lex_budget ex_file_text) false ex_file_text with
  | Ok its => match po_result (soy_file (N.of_nat (length ex_file_text)) ex_lexq ex_unq its) with
              | POk x' _ => cps_strip x' = cps_strip (NList 1 ex_file_nodes)
              | _ => False
              end
  | _ => False
  end.
Proof. vm_compute. reflexivity. Qed.

(* W3 in the models: a file with a template.  Its String() is  {namespace a}{template a.x} LF hi LF {/template} LF ;
   the scanner model reads it, the model of parse.SoyFile refuses it (the template name must start with "."). *)
Definition ex_w3_file : node :=
  NList 0 [NNamespace 0 (b "a") 0; NTemplate 0 (b "a.x") (NList 0 [NRawText 0 (b "hi")]) 0 false].
Example C17_file_with_template_refuted :
  exists txt, print_tree ex_w3_file = Some txt /\
    match lex_items is_letter_tbl is_digit_tbl (lex_budget txt) false txt with
    | Ok its => match po_result (soy_file (N.of_nat (length txt)) ex_lexq ex_unq its) with
                | PErr _ _ _ => True
                | _ => False
                end
    | _ => False
    end.
Proof. eexists. split; [vm_compute; reflexivity|]. vm_compute. exact I. Qed.

(* the {for} clause of the class with a list expression that is not a variable *)
Definition ex_for_nodes : list node :=
  [NFor 0 (b "x") (NBin OSub 0 (NDataRef 0 (b "a") []) (NInt 0 1)) (NList 0 []) None].
Example C17_for_list_expression_in_class :
  lb17_okb ex_for_nodes /\ print_tree (NList 0 ex_for_nodes) = Some (b "{for $x in $a - 1}{/for}").
Proof.
  split; [|vm_compute; reflexivity].
  apply lb17_ok_cmd; [|apply lb17_ok_nil].
  assert (Hwf : wf_expr (NBin OSub 0 (NDataRef 0 (b "a") []) (NInt 0 1))).
  { cbn. repeat split; try reflexivity; try exact I. }
  assert (Hlo : lex_ok (NBin OSub 0 (NDataRef 0 (b "a") []) (NInt 0 1))).
  { cbn. repeat split; try reflexivity; try exact I. }
  apply lb17_ok_for; [reflexivity|exact Hwf|exact Hlo|vm_compute; exact I|apply lb17_ok_nil].
Qed.
(* and W4 in the models: the printed text of {for $x in (-$a)} is read by the scanner model with the BINARY minus behind "in",
   and the model of parse.SoyFile refuses the items *)
Example C17_for_list_minus_refuted :
  let f := NList 0 [NFor 0 (b "x") (NNeg 0 (NDataRef 0 (b "a") [])) (NList 0 [NRawText 0 (b "b")]) None] in
  exists txt, print_tree f = Some txt /\
    match lex_items is_letter_tbl is_digit_tbl (lex_budget txt) false txt with
    | Ok its => match po_result (soy_file (N.of_nat (length txt)) ex_lexq ex_unq its) with
                | PErr _ _ _ => True
                | _ => False
                end
    | _ => False
    end.
Proof. eexists. split; [vm_compute; reflexivity|]. vm_compute. exact I. Qed.
