(* C18 -- No parse leaves a goroutine behind.

   Model: every scanner a parse starts is recorded as (items it sends, receives the parser made on
   its channel, drained); its goroutine has exited iff it was drained or every item was received
   ([scan_done]; that reading of the record is itself proved from a small-step model of the
   unbuffered channel, Model/Chan.v: C18_chan_* below).  Entry points: parse.SoyFile ([parse_file] /
   [soy_file]; its own scanner and the nested scanner of every quoted attribute expression),
   parse.Expr ([soy_expr]), and soy.ParseGlobals, which calls parse.Expr once per line.  The models
   describe /repo after 5b2986c (parseSwitch) and 8031664 (parse.Expr drains).

   Headline theorems: C18_scanner_fully_consumed_or_drained_file / _expr, for EVERY byte string --
   the scanner model of C05 (Model/Lexer.v) produces the items, the nested scanner of quoted attribute
   expressions IS that scanner model in expression mode ([lexq_model]), strconv.Unquote is universally
   quantified (any function).  There is no hypothesis about items.  The item-level statements they are
   composed from (any well-formed item stream, any well-formed nested scanner) follow as
   C18_..._items. *)
(* source tie by translation: the lemmas of these files are obligations of this property *)
From Soy Require Import Proofs.SourceTieParser Proofs.SourceTieLexer.
From Soy Require Import Model.Bytes Model.Outcome Model.Ast Model.Token Model.ExprParser Model.Parser Model.Lexer Model.ParseBytes Model.Chan.
From Soy Require Import Generated.Tables Proofs.ParserMeasure Proofs.ParserProofs Proofs.LexerProofs Proofs.LexParseBridge Proofs.ChanProofs Proofs.ChanParser.
Open Scope N_scope.

(* parse.SoyFile(name, s) for EVERY byte string s: the scanner model returns its items; the call
   returns a tree or an error (no run-time panic, so recover is never skipped); the first record is
   the entry point's own scanner; and every scanner started -- its own and the expression-mode
   scanner of every quoted attribute expression -- is drained or fully read, on success and on every
   error path.  unicode.IsLetter / IsDigit: any predicates false of eof; strconv.Unquote: any function. *)
Theorem C18_scanner_fully_consumed_or_drained_file :
  forall (uni_letter uni_digit : Z -> bool), uni_letter (-1)%Z = false -> uni_digit (-1)%Z = false ->
  forall (unq : bstr -> option bstr) (s : bstr),
  exists ts, lex_items uni_letter uni_digit (lex_budget s) false s = Ok ts /\
    let o := soy_file (N.of_nat (length s)) (lexq_model uni_letter uni_digit) unq ts in
    is_tree_or_error (po_result o)
    /\ (exists own nested, po_scans o = own :: nested /\ sc_sent own = length ts)
    /\ Forall (fun r => scan_done r = true) (po_scans o).
Proof. exact scanner_fully_consumed_or_drained_file_all. Qed.
Print Assumptions C18_scanner_fully_consumed_or_drained_file.

(* parse.Expr(s), hence every line of soy.ParseGlobals, for EVERY byte string s *)
Theorem C18_scanner_fully_consumed_or_drained_expr :
  forall (uni_letter uni_digit : Z -> bool), uni_letter (-1)%Z = false -> uni_digit (-1)%Z = false ->
  forall (s : bstr),
  exists ts, lex_items uni_letter uni_digit (lex_budget s) true s = Ok ts /\
    let o := soy_expr (N.of_nat (length s)) ts in
    is_tree_or_error (po_result o)
    /\ (exists own, po_scans o = [own] /\ sc_sent own = length ts)
    /\ Forall (fun r => scan_done r = true) (po_scans o).
Proof. exact scanner_fully_consumed_or_drained_expr_all. Qed.
Print Assumptions C18_scanner_fully_consumed_or_drained_expr.

(* the same, about the composed functions bytes -> parse_out of Model/ParseBytes.v *)
Theorem C18_no_goroutine_left_file :
  forall (uni_letter uni_digit : Z -> bool), uni_letter (-1)%Z = false -> uni_digit (-1)%Z = false ->
  forall (unq : bstr -> option bstr) (s : bstr),
  exists o, soy_file_bytes uni_letter uni_digit unq s = Ok o /\
            is_tree_or_error (po_result o) /\ po_scans o <> [] /\ Forall (fun r => scan_done r = true) (po_scans o).
Proof. exact soy_file_bytes_no_goroutine_left. Qed.
Print Assumptions C18_no_goroutine_left_file.

Theorem C18_no_goroutine_left_expr :
  forall (uni_letter uni_digit : Z -> bool), uni_letter (-1)%Z = false -> uni_digit (-1)%Z = false ->
  forall (s : bstr),
  exists o, soy_expr_bytes uni_letter uni_digit s = Ok o /\
            is_tree_or_error (po_result o) /\ po_scans o <> [] /\ Forall (fun r => scan_done r = true) (po_scans o).
Proof. exact soy_expr_bytes_no_goroutine_left. Qed.
Print Assumptions C18_no_goroutine_left_expr.

(* the instance the model runner executes: the unicode tables regenerated from the toolchain; nothing
   is assumed at all *)
Theorem C18_scanner_fully_consumed_or_drained_file_tbl :
  forall (unq : bstr -> option bstr) (s : bstr),
  exists ts, lex_items is_letter_tbl is_digit_tbl (lex_budget s) false s = Ok ts /\
    let o := soy_file (N.of_nat (length s)) (lexq_model is_letter_tbl is_digit_tbl) unq ts in
    is_tree_or_error (po_result o) /\ Forall (fun r => scan_done r = true) (po_scans o).
Proof. exact scanner_fully_consumed_or_drained_file_tbl. Qed.
Print Assumptions C18_scanner_fully_consumed_or_drained_file_tbl.

(* the nested scanner used above is the scanner model itself: its run never takes the dead branch *)
Theorem C18_nested_scanner_is_the_scanner_model :
  forall (uni_letter uni_digit : Z -> bool), uni_letter (-1)%Z = false -> uni_digit (-1)%Z = false ->
  forall str, exists ts, lex_items uni_letter uni_digit (lex_budget str) true str = Ok ts
                         /\ lexq_model uni_letter uni_digit str = ts /\ scan_ok (N.of_nat (length str)) ts.
Proof. exact lexq_model_runs. Qed.
Print Assumptions C18_nested_scanner_is_the_scanner_model.

(* ... and the items Model/Parser.v hands to the nested parse (those items shifted to the attribute's place
   in the file) are exactly what the scanner model started at that base -- lexExprAt -- sends *)
Theorem C18_nested_scanner_at_base :
  forall (uni_letter uni_digit : Z -> bool), uni_letter (-1)%Z = false -> uni_digit (-1)%Z = false ->
  forall (base : N) str,
  lex_items_at uni_letter uni_digit (Z.of_N base) (lex_budget str) str
  = Ok (map (shift_tok base) (lexq_model uni_letter uni_digit str)).
Proof. exact nested_scanner_at_base. Qed.
Print Assumptions C18_nested_scanner_at_base.

(* ---------- the item-level statements (any item stream, any nested scanner) ---------- *)
(* parse.SoyFile: for every stream of well-formed items in which an EOF item is the last item the
   scanner sends, and every well-formed nested scanner: the call returns a tree or an error (no
   run-time panic, so recover is never skipped), the first record is the entry point's own scanner,
   and every scanner started is drained or fully read -- on success and on every error path. *)
Theorem C18_scanner_fully_consumed_or_drained_file_items :
  forall inlen lexq unq, lexq_wf lexq ->
  forall ts fuel, items_wf inlen ts -> eof_last ts -> (length ts + 2 <= fuel)%nat ->
  let o := parse_file inlen lexq unq parse_expr expr_fuel fuel ts in
  is_tree_or_error (po_result o)
  /\ (exists own nested, po_scans o = own :: nested /\ sc_sent own = length ts)
  /\ Forall (fun r => scan_done r = true) (po_scans o).
Proof. exact scanner_fully_consumed_or_drained_file. Qed.
Print Assumptions C18_scanner_fully_consumed_or_drained_file_items.

(* parse.Expr, hence every line of soy.ParseGlobals: whatever follows the expression, the scanner
   is drained when the call returns *)
Theorem C18_scanner_fully_consumed_or_drained_expr_items :
  forall inlen ts, items_wf inlen ts ->
  is_tree_or_error (po_result (soy_expr inlen ts))
  /\ (exists own, po_scans (soy_expr inlen ts) = [own] /\ sc_sent own = length ts)
  /\ Forall (fun r => scan_done r = true) (po_scans (soy_expr inlen ts)).
Proof. exact scanner_fully_consumed_or_drained_expr. Qed.
Print Assumptions C18_scanner_fully_consumed_or_drained_expr_items.

(* the dependency named in the design: no parse ends in a run-time panic (which would skip the drain
   in recover) or exhausts the model's budget; and the receives are linear in the items *)
Theorem C18_parse_file_total :
  forall inlen lexq unq, lexq_wf lexq ->
  forall ts fuel, items_wf inlen ts -> (length ts + 2 <= fuel)%nat ->
  is_tree_or_error (po_result (parse_file inlen lexq unq parse_expr expr_fuel fuel ts)).
Proof. exact parse_file_total. Qed.
Print Assumptions C18_parse_file_total.

Theorem C18_parse_linear :
  forall inlen lexq unq, lexq_wf lexq ->
  forall ts fuel, items_wf inlen ts -> (length ts + 2 <= fuel)%nat ->
  (recv_of (po_result (parse_file inlen lexq unq parse_expr expr_fuel fuel ts)) <= length ts + 4)%nat
  /\ Forall (fun r => (sc_recv r <= sc_sent r + 4)%nat) (po_scans (parse_file inlen lexq unq parse_expr expr_fuel fuel ts)).
Proof. exact parse_linear. Qed.
Print Assumptions C18_parse_linear.

(* The pinned parse.Expr (no drain on the success path) leaves the scanner of "1 2 3" blocked;
   the repaired one does not. *)
Theorem C18_expr_pinned_refuted :
  map scan_done (po_scans (soy_expr_pinned 5 toks_1_2_3)) = [false]
  /\ map scan_done (po_scans (soy_expr 5 toks_1_2_3)) = [true].
Proof. exact expr_pinned_leaks. Qed.
Print Assumptions C18_expr_pinned_refuted.

(* the well-formedness hypothesis is needed: an item no scanner produces makes the Go code panic *)
Theorem C18_ill_formed_item_crashes :
  exists m, po_result (soy_file 9 (fun _ => []) (fun _ => None) toks_bad_let) = PCrash m.
Proof. exact ill_formed_item_crashes. Qed.

(* ---------- the channel protocol behind the (sent, received, drained) record (Model/Chan.v) ---------- *)
(* Single producer, single consumer over an unbuffered channel, EVERY schedule: a parse that returns
   returns what the functional reading gives (the consumer fed with the list of items, then zero
   items), so two interleavings cannot make one parse return two results: the parse result is a
   function of the bytes. *)
Theorem C18_chan_result_of_items :
  forall (A R : Type) (zero : A) (p : prod A) (c : cons A R) sched r,
  g_cons (run zero sched (cfg_init p c)) = CRet r -> feeds zero c (items p) r.
Proof. exact chan_result_of_items. Qed.
Print Assumptions C18_chan_result_of_items.

Theorem C18_chan_result_deterministic :
  forall (A R : Type) (zero : A) (p : prod A) (c : cons A R) sched1 sched2 r1 r2,
  g_cons (run zero sched1 (cfg_init p c)) = CRet r1 -> g_cons (run zero sched2 (cfg_init p c)) = CRet r2 -> r1 = r2.
Proof. exact chan_result_deterministic. Qed.
Print Assumptions C18_chan_result_deterministic.

(* scan_done is the right reading: when it holds (at any point of any execution) the scanner
   goroutine returns after finitely many steps of its own; when the parse has returned and it does
   not hold, the goroutine never exits under any continuation *)
Theorem C18_chan_scan_done_exits :
  forall (A R : Type) (zero : A) (p : prod A) (c : cons A R) sched,
  let g := run zero sched (cfg_init p c) in
  chan_scan_done (length (items p)) g = true -> exists k, exited (run zero (repeat MP k) g).
Proof. exact chan_scan_done_exits. Qed.
Print Assumptions C18_chan_scan_done_exits.

Theorem C18_chan_not_done_leaks :
  forall (A R : Type) (zero : A) (p : prod A) (c : cons A R) sched r,
  let g := run zero sched (cfg_init p c) in
  g_cons g = CRet r -> chan_scan_done (length (items p)) g = false -> forall more, ~ exited (run zero more g).
Proof. exact chan_not_done_leaks. Qed.
Print Assumptions C18_chan_not_done_leaks.

(* the record of Model/Parser.v in the channel model: a parse that makes n receives on the channel of the
   scanner of the items ts, then drains iff d, then returns -- under every schedule, once it has returned,
   Parser.scan_done of (|ts|, n, d) says exactly whether the scanner goroutine exits *)
Theorem C18_scan_done_reading :
  forall (A : Type) (zero : A) (n : nat) (d : bool) (ts : list A) sched,
  let g := run zero sched (cfg_init (prod_of A ts) (cons_of_record A n d)) in
  g_cons g = CRet tt ->
  (scan_done {| sc_sent := length ts; sc_recv := n; sc_drained := d |} = true -> exists k, exited (run zero (repeat MP k) g))
  /\ (scan_done {| sc_sent := length ts; sc_recv := n; sc_drained := d |} = false -> forall more, ~ exited (run zero more g)).
Proof. exact scan_done_reading. Qed.
Print Assumptions C18_scan_done_reading.

(* ---- the parser model IS a consumer of that channel, by theorem ---- *)
From Soy Require Proofs.RecvOnlyTok Proofs.RecvOnlyExpr Proofs.RecvOnlyCmd Proofs.ChanConsumer Proofs.ChanConsumerFile Proofs.ChanCount Proofs.ChanConsumerCount.

(* Model/Parser.v looks at the items only through Token.recv: a run (explicit budget F) that made no more receives
   than the list has items is the same run on every longer list -- same tree or error, same token state, the
   extension left over -- and conversely (so what the parse returns depends on the items it received and on nothing
   else); [ro_parse_zero_padding] is the same for receives past the end (a receive from the closed channel is a
   receive of a zero item).  By a walk over every procedure of Model/ExprParser.v and Model/Parser.v. *)
Theorem C18_parser_reads_only_received :
  forall inlen lexq unq F ts e,
  (forall r, item_list inlen lexq unq parse_expr expr_fuel F u_eof (cst_init ts) = r ->
     match RecvOnlyTok.ro_cfin r with Some q => (p_recv q <= length ts)%nat | None => False end ->
     item_list inlen lexq unq parse_expr expr_fuel F u_eof (cst_init (ts ++ e)) = RecvOnlyTok.ro_crext e r) /\
  (forall r', item_list inlen lexq unq parse_expr expr_fuel F u_eof (cst_init (ts ++ e)) = r' ->
     match RecvOnlyTok.ro_cfin r' with Some q => (p_recv q <= length ts)%nat | None => False end ->
     r' = RecvOnlyTok.ro_crext e (item_list inlen lexq unq parse_expr expr_fuel F u_eof (cst_init ts))).
Proof. exact RecvOnlyCmd.ro_parse_depends_on_received. Qed.
Print Assumptions C18_parser_reads_only_received.

Theorem C18_expr_parser_reads_only_received :
  forall F ts e,
  (forall r, parse_expr F 0 (pst_init ts) = r ->
     match RecvOnlyTok.ro_fin r with Some q => (p_recv q <= length ts)%nat | None => False end ->
     parse_expr F 0 (pst_init (ts ++ e)) = RecvOnlyTok.ro_rext e r) /\
  (forall r', parse_expr F 0 (pst_init (ts ++ e)) = r' ->
     match RecvOnlyTok.ro_fin r' with Some q => (p_recv q <= length ts)%nat | None => False end ->
     r' = RecvOnlyTok.ro_rext e (parse_expr F 0 (pst_init ts))).
Proof. exact RecvOnlyExpr.ro_parse_expr_depends_on_received. Qed.
Print Assumptions C18_expr_parser_reads_only_received.

(* hence parse.SoyFile (soy_file, with its own budget) is a consumer PROGRAM of Model/Chan.v -- ro_parser_prog,
   built from the functional model without the item list: it receives item after item and returns as soon as the
   model's run on the items received so far stays within them -- and C18_chan_result_of_items applies to it: for a
   scanner with well-formed items (what C05 proves of the scanner model), any budget F >= |items| + 8 and step
   bound k >= |items| + 4, under EVERY schedule of the two goroutines the parse, if it returns, returns soy_file's
   tree or error on the items the scanner sends *)
Theorem C18_parser_is_chan_consumer :
  forall inlen lexq unq, lexq_wf lexq ->
  forall (p : prod tok) sched F k r0,
  items_wf inlen (items p) -> (length (items p) + 8 <= F)%nat -> (length (items p) + 4 <= k)%nat ->
  g_cons (run zero_tok sched (cfg_init p (ChanConsumer.ro_parser_prog inlen lexq unq F k))) = CRet r0 ->
  match po_result (soy_file inlen lexq unq (items p)), r0 with
  | POk a q, COk a' s => a = a' /\ ChanConsumer.ro_pclear q = c_p s
  | PErr t c q, CErr t' c' s => t = t' /\ c = c' /\ ChanConsumer.ro_pclear q = c_p s
  | _, _ => False
  end.
Proof. exact ChanConsumerFile.ro_chan_soy_file. Qed.
Print Assumptions C18_parser_is_chan_consumer.

(* the same for parse.Expr (soy_expr, the repaired entry point: drained on every return), hence for every line of
   soy.ParseGlobals *)
Theorem C18_expr_parser_is_chan_consumer :
  forall inlen (p : prod tok) sched F k r0,
  items_wf inlen (items p) -> (length (items p) + 8 <= F)%nat -> (length (items p) + 4 <= k)%nat ->
  g_cons (run zero_tok sched (cfg_init p (ChanConsumer.ro_expr_prog inlen true F k))) = CRet r0 ->
  match po_result (soy_expr inlen (items p)), r0 with
  | POk a q, POk a' q' => a = a' /\ ChanConsumer.ro_pclear q = q'
  | PErr t c q, PErr t' c' q' => t = t' /\ c = c' /\ ChanConsumer.ro_pclear q = q'
  | _, _ => False
  end.
Proof. exact ChanConsumerFile.ro_chan_soy_expr. Qed.
Print Assumptions C18_expr_parser_is_chan_consumer.

(* and for that program -- the parser, not a stand-in built from its record -- the record parse_file reports for
   its own scanner is what happened on the channel, and Parser.scan_done of it says exactly whether the scanner
   goroutine exits *)
Theorem C18_parser_program_scan_done :
  forall inlen lexq unq F (p : prod tok) sched k n d r r0,
  ChanConsumer.ro_file_obs inlen lexq unq F (items p) = Some (n, d, r) -> (n <= k)%nat ->
  let g := run zero_tok sched (cfg_init p (ChanConsumer.ro_parser_prog inlen lexq unq F k)) in
  g_cons g = CRet r0 ->
  hd_error (po_scans (parse_file inlen lexq unq parse_expr expr_fuel F (items p))) = Some (own_scan (length (items p)) n d) /\
  (scan_done (own_scan (length (items p)) n d) = true -> exists j, exited (run zero_tok (repeat MP j) g)) /\
  (scan_done (own_scan (length (items p)) n d) = false -> forall more, ~ exited (run zero_tok more g)).
Proof. exact ChanConsumerCount.rc_parser_scan_done. Qed.
Print Assumptions C18_parser_program_scan_done.

(* Non-vacuity of the channel model: the scanner of "1 2 3" (four items) against a consumer that
   receives two items and returns (the pinned parse.Expr) under the schedule sync, sync: not scan_done,
   the producer is parked on its third send; with the drain (the repaired parse.Expr) and the schedule
   sync x4, producer closes, consumer sees the close: drained, and the producer has exited. *)
Definition ex_prod : prod N := PSend 1 (PSend 2 (PSend 3 (PSend 9 PClose))).
Definition ex_cons_pinned : cons N N := CRecv (fun a => CRecv (fun c => CRet (a + c))).
Definition ex_cons_drain : cons N N := CRecv (fun a => CRecv (fun c => CDrain (CRet (a + c)))).
Example C18_chan_example_leak :
  let g := run 0 [MS; MS] (cfg_init ex_prod ex_cons_pinned) in
  g_cons g = CRet 3 /\ chan_scan_done 4 g = false /\ parked g.
Proof. cbn. repeat split. eexists; eexists; reflexivity. Qed.
Example C18_chan_example_drained :
  let g := run 0 [MS; MS; MS; MS; MP; MC] (cfg_init ex_prod ex_cons_drain) in
  g_cons g = CRet 3 /\ chan_scan_done 4 g = true /\ exited g.
Proof. cbn. repeat split. Qed.

(* Non-vacuity: the items of  {call .u data="$x"/}  (20 bytes), the nested scanner's items for the
   attribute string $x, strconv.Unquote of the string item: the hypotheses hold, two scanners are
   started, the file's own is read to its EOF item, the nested one is drained. *)
Definition ex_mk (ty p : N) (v : bstr) : tok := {| t_typ := ty; t_pos := p; t_val := v |}.
Definition ex_toks : list tok := Eval vm_compute in
  [ ex_mk pit_LeftDelim 1 (b "{"); ex_mk pit_Call 5 (b "call"); ex_mk pit_DotIdent 8 (b ".u");
    ex_mk pit_Ident 13 (b "data"); ex_mk pit_Equals 14 (b "="); ex_mk pit_String 18 [34; 36; 120; 34];
    ex_mk pit_RightDelimEnd 20 (b "/}"); ex_mk pit_EOF 20 [] ].
Definition ex_lexq (s : bstr) : list tok :=
  if bstr_eqb s [36; 120] then [ ex_mk pit_DollarIdent 2 [36; 120]; ex_mk pit_Error 2 [] ] else [].
Definition ex_unq (s : bstr) : option bstr := if bstr_eqb s [34; 36; 120; 34] then Some [36; 120] else None.

Example C18_example_hypotheses : items_wf 20 ex_toks /\ eof_last ex_toks /\ lexq_wf ex_lexq.
Proof.
  split; [|split].
  - unfold items_wf, twf. apply Forall_forall. assert (H : forallb (twfb 20) ex_toks = true) by (vm_compute; reflexivity).
    rewrite forallb_forall in H. exact H.
  - vm_compute. repeat split; intros; try discriminate; reflexivity.
  - intros str. unfold items_wf, ex_lexq. destruct (bstr_eqb str [36; 120]) eqn:E; [|constructor].
    assert (L : length str = 2%nat).
    { destruct str as [|a str]; [discriminate|].
      destruct str as [|c str]; [cbn in E; destruct (a =? 36); discriminate|].
      destruct str as [|d r]; [reflexivity|].
      cbn in E. destruct (a =? 36); destruct (c =? 120); discriminate. }
    rewrite L. repeat constructor; vm_compute; reflexivity.
Qed.
Example C18_example_run :
  po_result (soy_file 20 ex_lexq ex_unq ex_toks)
  = POk (NList 1 [NCall 5 [46; 117] false (Some (NDataRef 20 [120] [])) []])
        {| p_rest := []; p_tok0 := ex_mk pit_EOF 20 []; p_tok1 := zero_tok; p_peek := 0; p_recv := 8 |}
  /\ po_scans (soy_file 20 ex_lexq ex_unq ex_toks)
     = [ {| sc_sent := 8; sc_recv := 8; sc_drained := false |}; {| sc_sent := 2; sc_recv := 2; sc_drained := true |} ].
Proof. vm_compute. split; reflexivity. Qed.

(* the same file from its BYTES: scanner model, nested scanner model and parser model together *)
Definition ex_bytes : bstr := Eval vm_compute in b "{call .u data=""$x""/}".
Example C18_example_from_bytes :
  match lex_items is_letter_tbl is_digit_tbl (lex_budget ex_bytes) false ex_bytes with
  | Ok ts => ts = ex_toks /\
             po_scans (soy_file 20 (lexq_model is_letter_tbl is_digit_tbl) ex_unq ts)
             = [ {| sc_sent := 8; sc_recv := 8; sc_drained := false |}; {| sc_sent := 2; sc_recv := 2; sc_drained := true |} ]
  | _ => False
  end.
Proof. vm_compute. split; reflexivity. Qed.

(* the parser as a consumer program on the same file: the scanner goroutine sends the eight items, eight
   rendezvous later the program has returned the tree, after 8 receives and no drain: scan_done *)
Example C18_example_consumer :
  let g := run zero_tok (repeat MS 8) (cfg_init (prod_of tok ex_toks) (ChanConsumer.ro_parser_prog 20 ex_lexq ex_unq 16 12)) in
  match g_cons g with
  | CRet (COk n _) => n = NList 1 [NCall 5 [46; 117] false (Some (NDataRef 20 [120] [])) []]
  | _ => False
  end /\ g_recv g = 8%nat /\ g_drained g = false /\ chan_scan_done 8 g = true.
Proof. vm_compute. repeat split; reflexivity. Qed.
